(* C15 prefix stability of the scanner (see ScanPrefix.v): the FETCH family - the token-level skeleton of
   Model/SFetch.v under the state relation [SH d] of ScanPrefix.v.  Port of ScanShiftFetch.v.

   Every fetch_* function and the DISPATCHER (the part of fetch_next_token behind its end-of-input test,
   [fnt_dispatch] of ScanPrefix.v), run from two related states - side 1 reads a text that ends, side 2 the same text
   followed by the marker line and [d] -: when side 1 ends with a value, side 2 does not end in an error and, if it
   ends with a value, the states are related again.  TWO independent fuels everywhere.  The five character-level
   contracts proved by the other families (directive, tag, flow / plain / block scalar) are hypotheses of the
   section; the contracts of the primitives and of scan_anchor come from ScanPrefixPrim.v.

   The block-scalar scanner's contract holds with a full lookahead buffer only ([4 <= lk s1]); fetch_block_scalar
   and the dispatcher carry that premise (nothing in front of the scanner's call touches the input).

   NOT here: fetch_stream_end, fetch_next_token as a whole, fetch_more_tokens, next_token, scan_all. *)
From Coq Require Import List NArith ZArith Bool Arith Lia.
Import ListNotations.
Require Import Parser SBase SPrim SDir SScalar SFetch ScanLockPrim ScanPrefix ScanPrefixPrim.
Require DispatchTie.
Local Open Scope nat_scope.

(* small facts *)
Lemma rn_keep (t s : bst) : rm t = rm s -> nbz (rn s 0) -> nbz (rn t 0).
Proof. intros R N. rewrite (rn_eq t s 0 R). exact N. Qed.
Lemma noLF_keep k (t s : bst) : rm t = rm s -> noLF k (rm s) -> noLF k (rm t).
Proof. intros R N. rewrite R. exact N. Qed.
Lemma docstart_noLF (s : bst) : docstart_val s = true -> noLF 3 (rm s).
Proof.
  unfold docstart_val. destruct (n3are s 45%N 45%N 45%N) eqn:E; [intros _|discriminate].
  eapply n3are_noLF; [| | |exact E]; reflexivity.
Qed.
(* '.' is not [lit]: by hand *)
Lemma docend_noLF (s : bst) : docend_val s = true -> noLF 3 (rm s).
Proof.
  unfold docend_val. destruct (n3are s 46%N 46%N 46%N) eqn:E; [intros _|discriminate].
  unfold n3are in E. apply andb_true_iff in E. destruct E as [E E2]. apply andb_true_iff in E. destruct E as [E0 E1].
  apply N.eqb_eq in E0, E1, E2.
  apply noLF_S; [apply noLF_S; [apply noLF_1|]|].
  - change (nbz (rn s 0)). rewrite E0. reflexivity.
  - change (nbz (rn s 1)). rewrite E1. reflexivity.
  - change (nbz (rn s 2)). rewrite E2. reflexivity.
Qed.
Lemma nbz_atend (s : bst) : nbz (rn s 0) -> atend s = false.
Proof. intros N. pose proof (nbz_ne s N) as HE. unfold atend. destruct (rm s); [contradiction|reflexivity]. Qed.

(* save_simple_key / allow_simple_key leave the input alone *)
Lemma save_in (s : bst) a t : save_simple_key s = Ok (a, t) -> sc_in t = sc_in s.
Proof.
  unfold save_simple_key, bind, get. destruct (sc_ska s); [|unfold ret; intros E; inversion E; reflexivity].
  match goal with |- context [if ?b then _ else _] => destruct b end.
  - destruct (sc_indents s); [unfold panic; discriminate|]. unfold ret, put. intros E; inversion E; reflexivity.
  - unfold ret, put. intros E; inversion E; reflexivity.
Qed.
Lemma allow_in (s : bst) a t : allow_simple_key s = Ok (a, t) -> sc_in t = sc_in s.
Proof. unfold allow_simple_key, modify. intros E; inversion E; reflexivity. Qed.

(* [keep]: an alignment fact about a state [s] is moved to a state [t] with the same remaining text *)
Ltac keep :=
  repeat match goal with
  | RT : rm ?t = rm ?s, N : nbz (rn ?s 0) |- _ => pose proof (rn_keep t s RT N); clear N
  | RT : rm ?t = rm ?s, N : noLF ?k (rm ?s) |- _ => pose proof (noLF_keep k t s RT N); clear N
  | RT : rm ?t = rm ?s, N : rm ?s <> [] |- _ => pose proof (SH_ne_eq s t N RT); clear N
  end.
(* the same boolean test on both sides (syntactically) *)
Ltac br := match goal with |- swp _ (if ?b then _ else _) (if ?b then _ else _) _ _ _ => destruct b end.

Section PrefixFetch.
Variable d : list chr.
Local Notation bwp := (swp d).

Hypothesis Hd : shf_scan_directive d.
Hypothesis Ht : shf_scan_tag d.
Hypothesis Hf : shf_scan_flow_scalar d.
Hypothesis Hp : shf_scan_plain_scalar d.
(* the block scalar scanner: with a full lookahead buffer *)
Hypothesis Hb : forall F1 F2 literal s1 s2, SH d s1 s2 -> nbz (rn s1 0) -> 4 <= lk s1 ->
  swp d (scan_block_scalar sops F1 literal) (scan_block_scalar sops F2 literal) (bpost d (TS d)) s1 s2.

(* a unit-valued step that keeps the remaining text *)
Definition kpost (s1 : bst) : unit -> bst -> unit -> bst -> Prop :=
  fun _ t1 _ t2 => SH d t1 t2 /\ rm t1 = rm s1.
Lemma bwp_seq {B1 B2} (m1 m2 : BM unit) (f1 : unit -> BM B1) (f2 : unit -> BM B2)
  (Q : B1 -> bst -> B2 -> bst -> Prop) s1 s2 :
  bwp m1 m2 (kpost s1) s1 s2 ->
  (forall t1 t2, SH d t1 t2 -> rm t1 = rm s1 -> bwp (f1 tt) (f2 tt) Q t1 t2) ->
  bwp (bind m1 f1) (bind m2 f2) Q s1 s2.
Proof.
  intros H HK. apply bwp_bind. eapply bwp_mono; [exact H|]. intros [] t1 [] t2 [HB HR]. apply HK; assumption.
Qed.
(* a step of side 1 that leaves the input alone: the continuation may use it *)
Lemma bwp_keep_in {A1 A2} (m1 : BM A1) (m2 : BM A2) (Q : A1 -> bst -> A2 -> bst -> Prop) s1 s2 :
  (forall a t, m1 s1 = Ok (a, t) -> sc_in t = sc_in s1) ->
  bwp m1 m2 (fun a1 t1 a2 t2 => sc_in t1 = sc_in s1 -> Q a1 t1 a2 t2) s1 s2 -> bwp m1 m2 Q s1 s2.
Proof.
  intros HI H. unfold swp in *. destruct (m1 s1) as [[a1 t1]|e1 k1|n1|]; auto.
  destruct (m2 s2) as [[a2 t2]|e2 k2|n2|]; auto. apply H. apply (HI a1 t1). reflexivity.
Qed.

(* [sk lem]: one skeleton-only step  m ;;; rest  with the rule [lem d : SH d s1 s2 -> skel_post -> bwp m m Q s1 s2] *)
Ltac sk lem :=
  apply bwp_bind; apply (lem d); [eassumption|];
  let t1 := fresh "t1" in let t2 := fresh "t2" in let HT := fresh "HT" in let RT := fresh "RT" in
  intros t1 t2 HT RT; keep; clear RT.
(* close [bpost d eq tt t1 tt t2] / [kpost s tt t1 tt t2] *)
Ltac fin := split; [reflexivity|assumption].
Ltac kfin := split; [assumption|first [assumption|reflexivity]].
(* [m <- mark ;; fail e m] on side 1: no claim *)
Ltac mfail HX := apply bwp_bind; apply (bwp_mark d); [exact HX|]; intros _; apply bwp_err_l.

(* stream start *)
Theorem fetch_stream_start_ok : shf_fetch_stream_start d.
Proof.
  intros s1 s2 H. unfold fetch_stream_start. apply bwp_bind. apply bwp_get. cbv beta zeta.
  apply bwp_put. split; [reflexivity|].
  apply SH_set_sks.
  - apply SH_push; [|apply TS_empty; exact (sh_mark H)]. apply SH_set_ska. apply SH_set_ss.
    rewrite <- (SH_indents H). apply SH_set_indent. exact H.
  - constructor; [reflexivity|]. exact (sh_sks H).
Qed.

(* the entry points of the character-level scanners *)
Theorem fetch_directive_ok : shf_fetch_directive d.
Proof.
  intros F1 F2 s1 s2 H N0. unfold fetch_directive.
  sk bwp_unroll_indent. sk bwp_remove_simple_key. sk bwp_disallow_simple_key.
  eapply (bwp_call d); [apply Hd; eassumption|]. intros a1 a2 u1 u2 HTR HU.
  apply (bwp_push_tok d); [exact HU|exact HTR|]. intros; fin.
Qed.

Theorem fetch_tag_ok : shf_fetch_tag d.
Proof.
  intros F1 F2 s1 s2 H N0. unfold fetch_tag.
  sk bwp_save_simple_key. sk bwp_disallow_simple_key.
  eapply (bwp_call d); [apply Ht; eassumption|]. intros a1 a2 u1 u2 HTR HU.
  apply (bwp_push_tok d); [exact HU|exact HTR|]. intros; fin.
Qed.

Theorem fetch_anchor_ok : shf_fetch_anchor d.
Proof.
  intros F1 F2 alias s1 s2 H N0. unfold fetch_anchor.
  sk bwp_save_simple_key. sk bwp_disallow_simple_key.
  eapply (bwp_call d); [apply (scan_anchor_ok d); eassumption|]. intros a1 a2 u1 u2 HTR HU.
  apply (bwp_push_tok d); [exact HU|exact HTR|]. intros; fin.
Qed.

(* with the lookahead premise of the block scalar scanner *)
Theorem fetch_block_scalar_ok F1 F2 literal s1 s2 : SH d s1 s2 -> nbz (rn s1 0) -> 4 <= lk s1 ->
  bwp (fetch_block_scalar sops F1 literal) (fetch_block_scalar sops F2 literal) (bpost d eq) s1 s2.
Proof.
  intros H N0 L4. unfold fetch_block_scalar.
  apply bwp_bind. apply bwp_keep_in; [apply save_in|].
  apply (bwp_save_simple_key d); [exact H|]. intros t1 t2 HT RT EI. keep. clear RT.
  assert (L4' : 4 <= lk t1) by (unfold lk; rewrite EI; exact L4). clear EI.
  apply bwp_bind. apply bwp_keep_in; [apply allow_in|].
  apply (bwp_allow_simple_key d); [exact HT|]. intros u1 u2 HU RU EI. keep. clear RU.
  assert (L4'' : 4 <= lk u1) by (unfold lk; rewrite EI; exact L4'). clear EI.
  eapply (bwp_call d); [apply Hb; eassumption|]. intros a1 a2 v1 v2 HTR HV.
  apply (bwp_push_tok d); [exact HV|exact HTR|]. intros; fin.
Qed.

Theorem fetch_flow_scalar_ok : shf_fetch_flow_scalar d.
Proof.
  intros F1 F2 single s1 s2 H N0. unfold fetch_flow_scalar.
  sk bwp_save_simple_key. sk bwp_disallow_simple_key.
  eapply (bwp_call d); [apply Hf; eassumption|]. intros a1 a2 u1 u2 HTR HU.
  eapply (bwp_call_al_eq d); [apply (skip_to_next_token_ok d); exact HU|]. intros [] v1 v2 HV _.
  apply bwp_bind. apply (bwp_modify_br d); [apply SH_set_adj_here; exact HV|reflexivity|]. intros w1 w2 HW _.
  apply (bwp_push_tok d); [exact HW|exact HTR|]. intros; fin.
Qed.

Theorem fetch_plain_scalar_ok : shf_fetch_plain_scalar d.
Proof.
  intros F1 F2 s1 s2 H N0. unfold fetch_plain_scalar.
  sk bwp_save_simple_key. sk bwp_disallow_simple_key.
  eapply (bwp_call d); [apply Hp; eassumption|]. intros a1 a2 u1 u2 HTR HU.
  apply (bwp_push_tok d); [exact HU|exact HTR|]. intros; fin.
Qed.

(* flow collections *)
Theorem fetch_flow_collection_start_ok : shf_fetch_flow_collection_start d.
Proof.
  intros F1 F2 seq s1 s2 H N0. unfold fetch_flow_collection_start.
  sk bwp_save_simple_key. sk bwp_roll_one_col_indent.
  match goal with HH : SH d ?a ?b |- _ => pose proof (sh_mark HH) as HM0; apply (bwp_flow_open d); [exact HH|assumption|] end.
  intros u1 u2 HU _.
  apply bwp_bind. apply (bwp_modify_br d).
  { rewrite <- (SH_ifms HU). apply SH_set_ifms. exact HU. }
  { reflexivity. }
  intros v1 v2 HV _.
  apply (bwp_call_ws d); [exact HV|]. intros tw w1 w2 HW _.
  apply bwp_bind. apply (bwp_mark d); [exact HW|]. intros HM1.
  apply (bwp_push_tok d); [exact HW|apply TS_mk; apply SPS_mk; assumption|]. intros; fin.
Qed.

Lemma bwp_check_flow_closer seq (Q : unit -> bst -> unit -> bst -> Prop) s1 s2 :
  SH d s1 s2 -> Q tt s1 tt s2 -> bwp (check_flow_closer seq) (check_flow_closer seq) Q s1 s2.
Proof.
  intros H HQ. unfold check_flow_closer. apply bwp_bind. apply bwp_get. cbv beta. sh_sync H.
  destruct (sc_ifms s1) as [|st r]; [apply bwp_ret; exact HQ|]. cbv zeta.
  destruct (Bool.eqb _ _); [apply bwp_ret; exact HQ|]. apply bwp_err_l.
Qed.

Theorem fetch_flow_collection_end_ok : shf_fetch_flow_collection_end d.
Proof.
  intros F1 F2 seq s1 s2 H N0. unfold fetch_flow_collection_end.
  apply bwp_bind. apply bwp_check_flow_closer; [exact H|]. cbv beta.
  sk bwp_remove_simple_key. sk bwp_decrease_flow_level. sk bwp_disallow_simple_key.
  apply bwp_seq.
  { destruct seq.
    - apply bwp_bind. apply (bwp_mark d); [eassumption|]. intros HM.
      apply (bwp_end_implicit_mapping d); [eassumption|exact HM|]. intros; kfin.
    - apply bwp_ret. kfin. }
  intros u1 u2 HU RU. keep. clear RU.
  apply bwp_bind. apply (bwp_modify_br d).
  { rewrite <- (SH_ifms HU). apply SH_set_ifms. exact HU. }
  { reflexivity. }
  intros v1 v2 HV RV. keep. clear RV.
  apply bwp_bind. apply (bwp_mark d); [exact HV|]. intros HM0.
  apply bwp_bind. apply (bwp_skip_non_blank d); [exact HV|eassumption|]. intros w1 w2 HW _.
  apply (bwp_call_ws d); [exact HW|]. intros tw x1 x2 HX _.
  apply bwp_bind. apply bwp_modify. cbv beta.
  match goal with |- swp _ _ _ _ ?a ?b => assert (HY : SH d a b) end.
  { rewrite <- (SH_flow_level HX). destruct (0 <? sc_flow_level x1)%N; [apply SH_set_adj_here|]; exact HX. }
  match goal with |- swp _ _ _ _ ?a ?b => generalize dependent a; generalize dependent b end.
  intros y2 y1 HY.
  apply bwp_bind. apply (bwp_mark d); [exact HY|]. intros HM1.
  apply (bwp_push_tok d); [exact HY|apply TS_mk; apply SPS_mk; assumption|]. intros; fin.
Qed.

Theorem fetch_flow_entry_ok : shf_fetch_flow_entry d.
Proof.
  intros F1 F2 s1 s2 H N0. unfold fetch_flow_entry.
  sk bwp_remove_simple_key. sk bwp_allow_simple_key.
  apply bwp_bind. apply (bwp_mark d); [eassumption|]. intros HM0.
  apply bwp_bind. apply (bwp_end_implicit_mapping d); [eassumption|exact HM0|]. intros u1 u2 HU RU. keep. clear RU.
  apply bwp_bind. apply (bwp_skip_non_blank d); [exact HU|eassumption|]. intros v1 v2 HV _.
  apply (bwp_call_ws d); [exact HV|]. intros tw w1 w2 HW _.
  apply bwp_bind. apply (bwp_mark d); [exact HW|]. intros HM1.
  apply (bwp_push_tok d); [exact HW|apply TS_mk; apply SPS_mk; assumption|]. intros; fin.
Qed.

(* block entry *)
Theorem fetch_block_entry_ok : shf_fetch_block_entry d.
Proof.
  intros F1 F2 s1 s2 H N0. unfold fetch_block_entry.
  apply bwp_bind. apply bwp_get. cbv beta zeta. sh_sync H.
  br; [apply bwp_err_l|].
  br; [apply bwp_err_l|].
  apply bwp_bind.
  apply bwp_mono with (Q := fun (_ : unit) (t1 : bst) (_ : unit) (t2 : bst) => t1 = s1 /\ t2 = s2).
  { pose proof (sh_tokens H) as HT. rewrite <- (F2_nil_iff (TS d) _ _ HT).
    destruct HT as [|a b l1 l2 Hab HT]; [cbn [last]; lazy beta iota; apply bwp_ret; split; reflexivity|].
    pose proof (F2_last (TS d) (a :: l1) (b :: l2) (span_empty mk0, TStreamEnd) (span_empty mk0, TStreamEnd)
                  (Forall2_cons a b Hab HT) (TS_refl d _)) as HL.
    revert HL. destruct (last (a :: l1) _) as [sp1 tk1]. destruct (last (b :: l2) _) as [sp2 tk2].
    intros HL. pose proof (TS_snd d _ _ HL) as HE. cbn [snd] in HE. subst tk2.
    destruct tk1; try (apply bwp_ret; split; reflexivity);
      (assert (ESP : sp2 = sp1)
         by (pose proof (TS_nonscalar d _ _ HL ltac:(intros st v; cbn [snd]; discriminate)) as EQ; congruence);
       subst sp2; br; [apply bwp_err_l|apply bwp_ret; split; reflexivity]). }
  intros [] t1 [] t2 [-> ->].
  apply bwp_bind. apply (bwp_skip_non_blank d); [exact H|exact N0|]. intros u1 u2 HU RU.
  assert (NU : rm u1 <> []) by ne_tl.
  apply bwp_bind. apply (bwp_roll_indent d); [exact HU|apply MS_refl|exact I|]. intros v1 v2 HV RV. keep. clear RV.
  apply (bwp_call_ws d); [exact HV|]. intros tw w1 w2 HW NW.
  apply bwp_bind. apply (bwp_look d); [exact HW|]. intros x1 x2 HX _ _ _ _ _.
  (* [c] may be a line feed here: the test on [nc] is guarded by [c = '-'] *)
  apply bwp_bind. apply (bwp_peekn_raw d 0). apply bwp_bind. apply (bwp_peekn_raw d 1). cbv beta.
  rewrite <- !andb_assoc.
  rewrite (guard1_brk d is_blank_or_breakz 45%N x1 x2 HX eq_refl).
  br; [mfail HX|].
  apply (bwp_call_ws d); [exact HX|]. intros tw' y1 y2 HY _.
  apply bwp_bind. apply (bwp_look d); [exact HY|]. intros z1 z2 HZ _ _ _ _ _.
  apply bwp_bind. apply (bwp_peek d); [exact HZ|]. cbv beta. b1_norm.
  eapply (bwp_call_eq d).
  { br; [apply (bwp_roll_one_col_indent d); [exact HZ|]; intros; fin|apply bwp_ret; fin]. }
  intros [] a1 a2 HA.
  sk bwp_remove_simple_key. sk bwp_allow_simple_key.
  apply bwp_bind. apply (bwp_mark d); [eassumption|]. intros HM.
  apply (bwp_push_tok d); [eassumption|apply TS_empty; exact HM|]. intros; fin.
Qed.

(* document indicators *)
(* three characters that are neither breaks nor NUL are consumed: side 1 is not at its end afterwards *)
Lemma fetch_document_indicator_ne t s1 s2 : SH d s1 s2 -> noLF 3 (rm s1) ->
  bwp (fetch_document_indicator sops t) (fetch_document_indicator sops t)
      (fun a1 t1 a2 t2 => a1 = a2 /\ SH d t1 t2 /\ rm t1 <> []) s1 s2.
Proof.
  intros H N3. unfold fetch_document_indicator.
  sk bwp_unroll_indent. sk bwp_remove_simple_key. sk bwp_disallow_simple_key.
  apply bwp_bind. apply (bwp_mark d); [eassumption|]. intros HM0.
  match goal with HH : SH d ?a _, NN : noLF 3 (rm ?a) |- _ =>
    pose proof (skipn_nonempty_of_noLF d _ _ 3 HH NN ltac:(lia)) as NE end.
  apply bwp_bind. apply (bwp_skip_n_non_blank d); [eassumption|eassumption|lia|]. intros u1 u2 HU RU.
  apply bwp_bind. apply (bwp_mark d); [exact HU|]. intros HM1.
  apply (bwp_push_tok d); [exact HU|apply TS_mk; apply SPS_mk; assumption|]. intros v1 v2 HV RV.
  split; [reflexivity|split; [exact HV|]]. rewrite RV, RU. exact NE.
Qed.
Theorem fetch_document_indicator_ok : shf_fetch_document_indicator d.
Proof.
  intros t s1 s2 H N3. eapply bwp_mono; [apply fetch_document_indicator_ne; assumption|].
  intros a1 t1 a2 t2 (E & HT & _). split; assumption.
Qed.

(* key / value *)
Theorem fetch_key_ok : shf_fetch_key d.
Proof.
  intros F1 F2 s1 s2 H N0. unfold fetch_key.
  apply bwp_bind. apply bwp_get. cbv beta zeta. sh_sync H.
  apply bwp_seq.
  { br.
    - br; [apply bwp_err_l|].
      apply (bwp_roll_indent d); [exact H|apply MS_refl|exact I|]. intros; kfin.
    - apply bwp_modify. rewrite <- (SH_ifms H).
      destruct (sc_ifms s1) as [|[| | |] r]; (split; [first [exact H|apply SH_set_ifms; exact H]|reflexivity]). }
  intros u1 u2 HU RU. keep. clear RU.
  sk bwp_remove_simple_key.
  apply bwp_seq.
  { br; [apply (bwp_allow_simple_key d)|apply (bwp_disallow_simple_key d)]; try eassumption; intros; kfin. }
  intros v1 v2 HV RV. keep. clear RV.
  apply bwp_bind. apply (bwp_skip_non_blank d); [exact HV|eassumption|]. intros w1 w2 HW _.
  eapply (bwp_call_al_eq d); [apply (skip_yaml_whitespace_ok d); exact HW|]. intros [] x1 x2 HX _.
  apply bwp_bind. apply (bwp_peek d); [exact HX|]. cbv beta. b1_norm.
  br; [mfail HX|].
  apply bwp_bind. apply (bwp_mark d); [exact HX|]. intros HM.
  apply (bwp_push_tok d); [exact HX|apply TS_mk; apply SPS_mk; [apply MS_refl|exact HM]|]. intros; fin.
Qed.

Theorem fetch_value_ok : shf_fetch_value d.
Proof.
  intros F1 F2 s1 s2 H N0. unfold fetch_value.
  apply bwp_bind. apply bwp_get. cbv beta. sh_sync H.
  destruct (sc_sks s1) as [|k1 r1]; [apply bwp_panic_l|].
  apply bwp_bind. apply bwp_ret. cbv beta zeta.
  match goal with |- context [if ?b then modify _ else ret tt] => remember b as is_ifm eqn:Eifm; clear Eifm end.
  apply bwp_seq.
  { br; [|apply bwp_ret; kfin]. apply bwp_modify. split; [|reflexivity].
    rewrite <- (SH_ifms H). apply SH_set_ifms. exact H. }
  intros u1 u2 HU RU. keep. clear RU.
  apply bwp_bind. apply (bwp_skip_non_blank d); [exact HU|eassumption|]. intros v1 v2 HV RV.
  assert (NV : rm v1 <> []) by ne_tl.
  apply bwp_bind.
  apply bwp_mono with (Q := fun (c1 : chr) (t1 : bst) (c2 : chr) (t2 : bst) => SH d t1 t2 /\ (c2 =? 9)%N = (c1 =? 9)%N).
  { br; [|apply bwp_ret; split; [exact HV|reflexivity]].
    apply (bwp_look_ch d); [exact HV|]. intros w1 w2 HW _ _ _ _. cbv beta. b1_norm. split; [exact HW|reflexivity]. }
  intros c1 w1 c2 w2 [HW Ec]. cbv beta. rewrite Ec. clear Ec.
  eapply (bwp_call_eq d).
  { br; [|apply bwp_ret; fin].
    apply (bwp_call_ws d); [exact HW|]. intros tw x1 x2 HX _.
    br; [|apply bwp_ret; fin].
    apply bwp_bind. apply (bwp_peek d); [exact HX|]. cbv beta. b1_norm.
    br; [mfail HX|apply bwp_ret; fin]. }
  intros [] x1 x2 HX.
  destruct (sk_possible k1) eqn:EP.
  - (* the pending simple key becomes a KEY token *)
    apply bwp_bind. apply bwp_get. cbv beta. sh_sync HX.
    apply bwp_bind. br; [apply bwp_panic_l|]. apply bwp_ret.
    apply bwp_bind. apply (bwp_insert_token d); [exact HX|apply TS_refl|]. intros y1 y2 HY _.
    eapply (bwp_call_eq d).
    { br; [|apply bwp_ret; fin].
      br; [apply bwp_err_l|]. br; [|apply bwp_ret; fin].
      apply (bwp_insert_token d); [exact HY|apply TS_refl|]. intros; fin. }
    intros [] z1 z2 HZ.
    apply bwp_bind. apply (bwp_roll_indent d); [exact HZ|apply MS_refl|reflexivity|]. intros a1 a2 HA _.
    sk bwp_roll_one_col_indent.
    apply bwp_bind. apply bwp_modify. cbv beta.
    match goal with |- swp _ _ _ _ ?a ?b => assert (HB : SH d a b) end.
    { match goal with HH : SH d ?a ?b |- SH d (match sc_sks ?a with _ => _ end) _ =>
        rewrite <- (SH_sks HH); destruct (sc_sks a) as [|q1 l1];
          [exact HH|apply SH_set_sks; [exact HH|apply KSs_refl]] end. }
    match goal with |- swp _ _ _ _ ?a ?b => generalize dependent a; generalize dependent b end.
    intros b2 b1' HB.
    sk bwp_disallow_simple_key.
    apply (bwp_push_tok d); [eassumption|apply TS_refl|]. intros; fin.
  - (* no simple key: an empty key *)
    eapply (bwp_call_eq d).
    { br; [|apply bwp_ret; fin]. apply (bwp_push_tok d); [exact HX|apply TS_refl|]. intros; fin. }
    intros [] y1 y2 HY.
    apply bwp_bind. apply bwp_get. cbv beta. sh_sync HY.
    eapply (bwp_call_eq d).
    { br; [|apply bwp_ret; fin]. br; [apply bwp_err_l|].
      apply (bwp_roll_indent d); [exact HY|apply MS_refl|exact I|]. intros; fin. }
    intros [] z1 z2 HZ.
    sk bwp_roll_one_col_indent.
    eapply (bwp_call_eq d).
    { br; [apply (bwp_allow_simple_key d)|apply (bwp_disallow_simple_key d)]; try eassumption; intros; fin. }
    intros [] a1 a2 HA.
    apply (bwp_push_tok d); [exact HA|apply TS_refl|]. intros; fin.
Qed.

Theorem fetch_flow_value_ok : shf_fetch_flow_value d.
Proof.
  intros F1 F2 s1 s2 H N0 HFL. unfold fetch_flow_value.
  apply bwp_bind. apply (bwp_peekn_same d 1); [exact H|apply noLF_1; exact N0|apply nbz_ne; exact N0|]. intros _.
  apply bwp_bind. apply bwp_get. cbv beta. sh_sync H.
  br; [apply bwp_err_l|]. apply fetch_value_ok; assumption.
Qed.

(* the dispatcher *)
Ltac q4 := split; [reflexivity|split; [reflexivity|split; [reflexivity|intros E; first [discriminate E|exact E]]]].

(* fetch_next_token behind its end-of-input test, entered at a character that is neither a line break nor NUL, with
   a full lookahead buffer (fetch_next_token has just executed  look 4 ) *)
Theorem dispatch_ok : forall F1 F2 s1 s2, SH d s1 s2 -> nbz (rn s1 0) -> 4 <= lk s1 ->
  swp d (fnt_dispatch F1) (fnt_dispatch F2) (bpost d eq) s1 s2.
Proof.
  intros F1 F2 s1 s2 H N0 L4. unfold fnt_dispatch.
  assert (NE : rm s1 <> []) by (apply nbz_ne; exact N0).
  assert (EA : atend s1 = false) by (apply nbz_atend; exact N0).
  apply bwp_bind. apply bwp_get. cbv beta. sh_sync H.
  apply bwp_bind. apply (bwp_peek d); [exact H|]. cbv beta. rewrite (b1_nbz _ N0).
  (* document markers at column 0: found on one side iff found on the other (side 1 is not at its end) *)
  apply bwp_bind.
  apply bwp_mono with (Q := fun (a1 : bool) (t1 : bst) (a2 : bool) (t2 : bst) =>
     a1 = a2 /\ t1 = s1 /\ t2 = s2 /\ (a1 = true -> docstart_val s1 = true)).
  { br; [|apply bwp_ret; q4]. br; [apply bwp_ret; q4|].
    apply (bwp_next_is_document_start d); [exact H|]. q4. }
  intros dstart ? ? ? (<- & -> & -> & HDS).
  apply bwp_bind.
  apply bwp_mono with (Q := fun (a1 : bool) (t1 : bst) (a2 : bool) (t2 : bst) =>
     a1 = a2 /\ t1 = s1 /\ t2 = s2 /\ (a1 = true -> docend_val s1 = true)).
  { br; [|apply bwp_ret; q4]. apply (bwp_next_is_document_end d); [exact H|]. rewrite EA, orb_false_r. q4. }
  intros dend ? ? ? (<- & -> & -> & HDE).
  br; [apply fetch_directive_ok; assumption|].
  br; [apply fetch_document_indicator_ok; [exact H|apply docstart_noLF; apply HDS; reflexivity]|].
  br.
  { apply bwp_bind. eapply bwp_mono;
      [apply fetch_document_indicator_ne; [exact H|apply docend_noLF; apply HDE; reflexivity]|].
    intros [] z1 [] z2 (_ & HZ & NZ).
    apply (bwp_call_ws d); [exact HZ|]. intros tw a1 a2 HA NA.
    apply bwp_bind. apply (bwp_next_is_in d); [exact HA|apply NA; exact NZ|].
    br; [apply bwp_ret; fin|mfail HA]. }
  br; [apply bwp_err_l|].
  (* the character dispatch: the first character is not a line break, so the second is the same on both sides *)
  apply bwp_bind. apply (bwp_peek d); [exact H|]. rewrite (b1_nbz _ N0).
  apply bwp_bind. apply (bwp_peekn_same d 1); [exact H|apply noLF_1; exact N0|exact NE|]. intros _. cbv beta.
  (* what is left is the if-chain of the source's match, on both sides over the fields of [s1]: the same arm *)
  apply (DispatchTie.dispatch_both (fun m1 m2 => bwp m1 m2 (bpost d eq) s1 s2) sops sops F1 F2 _ _ _ _ s1 s1 eq_refl).
  intros [] HP; cbn [DispatchTie.run_dact DispatchTie.dact_pre] in HP |- *.
  - apply fetch_flow_collection_start_ok; assumption.
  - apply fetch_flow_collection_end_ok; assumption.
  - apply fetch_flow_entry_ok; assumption.
  - apply fetch_block_entry_ok; assumption.
  - apply fetch_key_ok; assumption.
  - apply fetch_value_ok; assumption.
  - apply fetch_flow_value_ok; [assumption|assumption|exact (proj2 HP)].
  - apply fetch_anchor_ok; assumption.
  - apply fetch_tag_ok; assumption.
  - apply fetch_block_scalar_ok; assumption.
  - apply fetch_flow_scalar_ok; assumption.
  - apply fetch_plain_scalar_ok; assumption.
  - apply bwp_err_l.
Qed.

End PrefixFetch.

Print Assumptions fetch_stream_start_ok.
Print Assumptions fetch_directive_ok.
Print Assumptions fetch_tag_ok.
Print Assumptions fetch_anchor_ok.
Print Assumptions fetch_flow_collection_start_ok.
Print Assumptions fetch_flow_collection_end_ok.
Print Assumptions fetch_flow_entry_ok.
Print Assumptions fetch_block_entry_ok.
Print Assumptions fetch_document_indicator_ok.
Print Assumptions fetch_block_scalar_ok.
Print Assumptions fetch_flow_scalar_ok.
Print Assumptions fetch_plain_scalar_ok.
Print Assumptions fetch_key_ok.
Print Assumptions fetch_value_ok.
Print Assumptions fetch_flow_value_ok.
Print Assumptions dispatch_ok.
