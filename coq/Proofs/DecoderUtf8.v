(* C18 — the UTF-8 decoder model (Model/Decoders.v: u8_raw) meets the per-call specification of
   Proofs/DecoderLoop.v with respect to the one-shot specification utf8_next (Spec/EncodingSpec.v).

     valid_head_utf8_head     the fast path's notion of "complete well-formed sequence" (announced length, then
                              the RFC 3629 decoder) is the specification's (some prefix is accepted)
     maximal_subpart_lead     Table 3-7 evaluated for a given first byte
     row_complete_valid       a sequence that follows a row of Table 3-7 is accepted by the RFC 3629 decoder
     u8_pending_malformed     the state machine of Utf8Decoder, after a leading byte, reports exactly the maximal
                              subpart of Table 3-7 for a sequence that is not well formed
     u8_call_ok               the per-call specification                                                *)
From Coq Require Import List NArith Bool Lia Arith.
Import ListNotations.
Require Import Consts Decode TagSpec EncodingSpec Decoders DecodeProofs TagUtf8 DecoderLoop.
Open Scope N_scope.
Arguments N.add : simpl never.
Arguments N.sub : simpl never.
Arguments N.mul : simpl never.
Arguments N.div : simpl never.
Arguments N.modulo : simpl never.
Arguments N.eqb : simpl never.
Arguments N.ltb : simpl never.
Arguments N.leb : simpl never.
Arguments N.max : simpl never.
Arguments N.to_nat : simpl never.
Arguments N.of_nat : simpl never.

(* 1. valid_head (model) = utf8_head (specification) *)
Lemma firstn_cons_S : forall (b : N) tl k, firstn (S k) (b :: tl) = b :: firstn k tl.
Proof. reflexivity. Qed.

(* if a prefix is accepted, it is the prefix of the announced length *)
Lemma decode_prefix_announced : forall j b tl c,
    utf8_decode (firstn j (b :: tl)) = Some c ->
    exists k, sequence_length b = Some k /\ firstn j (b :: tl) = firstn k (b :: tl) /\ (k <= j)%nat /\ (k <= S (length tl))%nat.
Proof.
  intros j b tl c H. destruct j as [|j]; [discriminate|].
  rewrite firstn_cons_S in H. pose proof (utf8_decode_length _ _ _ H) as Hs.
  exists (S (length (firstn j tl))). split; [exact Hs|].
  rewrite firstn_length. rewrite !firstn_cons_S.
  split; [|lia]. f_equal.
  destruct (Nat.le_ge_cases j (length tl)) as [Hle|Hge].
  - rewrite Nat.min_l by exact Hle. reflexivity.
  - rewrite Nat.min_r by exact Hge. rewrite !firstn_all2 by lia. reflexivity.
Qed.

Lemma valid_head_utf8_head : forall bs,
    utf8_head bs = match valid_head bs with Some (c, k) => Some (c, N.of_nat k) | None => None end.
Proof.
  intros [|b tl]; [reflexivity|].
  unfold valid_head.
  destruct (sequence_length b) as [k|] eqn:Hs.
  - pose proof (sequence_length_range _ _ Hs) as Hk.
    (* no other length is accepted *)
    assert (Hother : forall j c, utf8_decode (firstn j (b :: tl)) = Some c -> firstn j (b :: tl) = firstn k (b :: tl) /\ (k <= j)%nat).
    { intros j c H. destruct (decode_prefix_announced _ _ _ _ H) as (k' & Hs' & E & Hle & _).
      rewrite Hs in Hs'. inversion Hs'; subst k'. split; assumption. }
    destruct (utf8_decode (firstn k (b :: tl))) as [c|] eqn:Hd.
    + unfold utf8_head.
      assert (Hk4 : k = 1%nat \/ k = 2%nat \/ k = 3%nat \/ k = 4%nat) by lia.
      destruct (utf8_decode (firstn 1 (b :: tl))) as [c1|] eqn:E1.
      { destruct (Hother _ _ E1) as [E Hle]. assert (k = 1%nat) by lia. subst k. rewrite E1 in Hd. inversion Hd. reflexivity. }
      destruct (utf8_decode (firstn 2 (b :: tl))) as [c2|] eqn:E2.
      { destruct (Hother _ _ E2) as [E Hle]. rewrite E, Hd in E2. inversion E2; subst c2.
        assert (k = 2%nat) by (destruct Hk4 as [ -> | [ -> | [ -> | -> ] ] ]; [rewrite Hd in E1; discriminate|reflexivity|lia|lia]).
        subst k. reflexivity. }
      destruct (utf8_decode (firstn 3 (b :: tl))) as [c3|] eqn:E3.
      { destruct (Hother _ _ E3) as [E Hle]. rewrite E, Hd in E3. inversion E3; subst c3.
        assert (k = 3%nat)
          by (destruct Hk4 as [ -> | [ -> | [ -> | -> ] ] ]; [rewrite Hd in E1; discriminate|rewrite Hd in E2; discriminate|reflexivity|lia]).
        subst k. reflexivity. }
      destruct Hk4 as [ -> | [ -> | [ -> | -> ] ] ]; [congruence|congruence|congruence|].
      rewrite Hd. reflexivity.
    + unfold utf8_head.
      assert (Hnone : forall j, utf8_decode (firstn j (b :: tl)) = None).
      { intros j. destruct (utf8_decode (firstn j (b :: tl))) as [c|] eqn:E; [|reflexivity].
        destruct (Hother _ _ E) as [E' _]. rewrite E', Hd in E. discriminate. }
      rewrite !Hnone. reflexivity.
  - unfold utf8_head.
    assert (Hnone : forall j, utf8_decode (firstn j (b :: tl)) = None).
    { intros j. destruct (utf8_decode (firstn j (b :: tl))) as [c|] eqn:E; [|reflexivity].
      destruct (decode_prefix_announced _ _ _ _ E) as (k' & Hs' & _). congruence. }
    rewrite !Hnone. reflexivity.
Qed.

(* 2. Table 3-7 *)
Ltac decide_cmp :=
  repeat match goal with
         | |- context [?a <=? ?b] =>
             first [rewrite (proj2 (N.leb_le a b)) by lia | rewrite (proj2 (N.leb_gt a b)) by lia]
         | |- context [?a <? ?b] =>
             first [rewrite (proj2 (N.ltb_lt a b)) by lia | rewrite (proj2 (N.ltb_ge a b)) by lia]
         | |- context [?a =? ?b] =>
             first [rewrite (proj2 (N.eqb_eq a b)) by lia | rewrite (proj2 (N.eqb_neq a b)) by lia]
         end.

Lemma prefix_match_cons : forall r row b bs,
    prefix_match (r :: row) (b :: bs) = if in_range r b then 1 + prefix_match row bs else 0.
Proof. reflexivity. Qed.

Lemma prefix_match_nil_row : forall bs, prefix_match [] bs = 0.
Proof. reflexivity. Qed.

Lemma prefix_match_nil : forall row, prefix_match row [] = 0.
Proof. intros [|r row]; reflexivity. Qed.

Definition rlen (row : list (N * N)) : N := N.of_nat (length row).
Lemma rlen_cons : forall r row, rlen (r :: row) = rlen row + 1.
Proof. intros r row. unfold rlen. cbn [length]. lia. Qed.

Lemma prefix_match_le_row : forall row bs, prefix_match row bs <= rlen row.
Proof.
  induction row as [|r row IH]; intros bs; [cbn; lia|].
  destruct bs as [|b bs]; [rewrite prefix_match_nil; lia|].
  rewrite prefix_match_cons, rlen_cons. destruct (in_range r b); [specialize (IH bs)|]; lia.
Qed.

Lemma prefix_match_le : forall row bs, prefix_match row bs <= nlen bs.
Proof.
  induction row as [|r row IH]; intros bs; [cbn; lia|].
  destruct bs as [|b bs]; [rewrite prefix_match_nil; lia|].
  rewrite prefix_match_cons, nlen_cons. destruct (in_range r b); [specialize (IH bs)|]; lia.
Qed.

(* the row of Table 3-7 a first byte selects, without its first column; None = no row *)
Definition tail_row (b : N) : option (list (N * N)) :=
  if b <? 194 then None
  else if b <? 224 then Some [cont]
  else if b <? 240 then Some [(if b =? 224 then 160 else 128, if b =? 237 then 159 else 191); cont]
  else if b <? 245 then Some [(if b =? 240 then 144 else 128, if b =? 244 then 143 else 191); cont; cont]
  else None.

Lemma prefix_match_miss : forall lo hi row b bs, b < lo \/ hi < b -> prefix_match ((lo, hi) :: row) (b :: bs) = 0.
Proof.
  intros lo hi row b bs H. rewrite prefix_match_cons. unfold in_range. cbn [fst snd].
  destruct (N.leb_spec lo b); [|reflexivity]. destruct (N.leb_spec b hi); [lia|reflexivity].
Qed.

Lemma prefix_match_hit : forall lo hi row b bs, lo <= b <= hi ->
    prefix_match ((lo, hi) :: row) (b :: bs) = 1 + prefix_match row bs.
Proof.
  intros lo hi row b bs H. rewrite prefix_match_cons. unfold in_range. cbn [fst snd].
  rewrite between_intro by exact H. reflexivity.
Qed.

(* The first columns of the table are disjoint: a first byte is in at most one of them, every other row counts 0.
   The cases are those of [tail_row]; 224..239 and 240..244 are split where the second column changes. *)
Lemma maximal_subpart_lead : forall b tl, 128 <= b ->
    maximal_subpart (b :: tl) = match tail_row b with Some tr => 1 + prefix_match tr tl | None => 1 end.
Proof.
  intros b tl Hb. unfold maximal_subpart, utf8_table, tail_row, cont. cbn [fold_right].
  destruct (N.ltb_spec b 194). { rewrite !prefix_match_miss by lia. reflexivity. }
  destruct (N.ltb_spec b 224). { rewrite (prefix_match_hit 194 223), !prefix_match_miss by lia. lia. }
  destruct (N.ltb_spec b 240).
  { destruct (N.eqb_spec b 224); destruct (N.eqb_spec b 237); [lia| | |].
    - rewrite (prefix_match_hit 224 224), !prefix_match_miss by lia. lia.
    - rewrite (prefix_match_hit 237 237), !prefix_match_miss by lia. lia.
    - destruct (N.le_gt_cases b 236).
      + rewrite (prefix_match_hit 225 236), !prefix_match_miss by lia. lia.
      + rewrite (prefix_match_hit 238 239), !prefix_match_miss by lia. lia. }
  destruct (N.ltb_spec b 245); [|rewrite !prefix_match_miss by lia; reflexivity].
  destruct (N.eqb_spec b 240); destruct (N.eqb_spec b 244); [lia| | |].
  - rewrite (prefix_match_hit 240 240), !prefix_match_miss by lia. lia.
  - rewrite (prefix_match_hit 244 244), !prefix_match_miss by lia. lia.
  - rewrite (prefix_match_hit 241 243), !prefix_match_miss by lia. lia.
Qed.

Lemma maximal_subpart_le4 : forall bs, maximal_subpart bs <= 4.
Proof.
  intros bs. unfold maximal_subpart, utf8_table. cbn [fold_right].
  repeat match goal with
         | |- context [prefix_match ?row bs] =>
             let H := fresh in pose proof (prefix_match_le_row row bs) as H; unfold rlen in H; cbn [length] in H;
             generalize dependent (prefix_match row bs); intros
         end. lia.
Qed.

Lemma maximal_subpart_bounds : forall bs, bs <> [] -> 1 <= maximal_subpart bs <= nlen bs.
Proof.
  intros bs Hne. pose proof (nlen_pos bs Hne) as Hl.
  unfold maximal_subpart, utf8_table. cbn [fold_right].
  repeat match goal with
         | |- context [prefix_match ?row bs] =>
             let H := fresh in pose proof (prefix_match_le row bs) as H;
             generalize dependent (prefix_match row bs); intros
         end. lia.
Qed.

(* a sequence that follows a row of the table is accepted by the RFC 3629 decoder *)
Lemma complete_in_range : forall r row b bs,
    prefix_match (r :: row) (b :: bs) = rlen (r :: row) -> in_range r b = true /\ prefix_match row bs = rlen row.
Proof.
  intros r row b bs H. rewrite prefix_match_cons, rlen_cons in H.
  destruct (in_range r b); [split; [reflexivity|lia]|lia].
Qed.

Lemma in_range_bounds : forall lo hi b, in_range (lo, hi) b = true -> lo <= b <= hi.
Proof.
  intros lo hi b H. apply between_iff in H. exact H.
Qed.

Lemma row_complete_valid : forall b tl tr, 128 <= b -> tail_row b = Some tr ->
    prefix_match tr tl = rlen tr -> exists c k, valid_head (b :: tl) = Some (c, k).
Proof.
  intros b tl tr Hb Htr Hpm. unfold tail_row in Htr.
  destruct (N.ltb_spec b 194) as [|H194]; [discriminate|].
  destruct (N.ltb_spec b 224) as [H224|H224].
  { inversion Htr; subst tr. destruct tl as [|b2 tl]; [rewrite prefix_match_nil in Hpm; discriminate|].
    apply complete_in_range in Hpm as [R2 _]. apply in_range_bounds in R2.
    unfold valid_head, sequence_length. decide_cmp. cbn [andb firstn utf8_decode]. unfold continuation.
    decide_cmp. cbn [andb]. eexists _, _; reflexivity. }
  destruct (N.ltb_spec b 240) as [H240|H240].
  { inversion Htr; subst tr. clear Htr.
    destruct tl as [|b2 tl]; [rewrite prefix_match_nil in Hpm; discriminate|].
    apply complete_in_range in Hpm as [R2 Hpm]. apply in_range_bounds in R2.
    destruct tl as [|b3 tl]; [rewrite prefix_match_nil in Hpm; discriminate|].
    apply complete_in_range in Hpm as [R3 _]. apply in_range_bounds in R3.
    assert (R2' : 128 <= b2 <= 191 /\ (b = 224 -> 160 <= b2) /\ (b = 237 -> b2 <= 159)).
    { destruct (N.eqb_spec b 224); destruct (N.eqb_spec b 237); lia. }
    clear R2.
    unfold valid_head, sequence_length. decide_cmp. cbn [andb firstn utf8_decode]. unfold continuation.
    decide_cmp. cbn [andb]. cbv zeta. unfold is_scalar_value.
    destruct (N.ltb_spec ((b - 224) * 4096 + (b2 - 128) * 64 + (b3 - 128)) 55296); cbn [orb];
      decide_cmp; cbn [andb]; eexists _, _; reflexivity. }
  destruct (N.ltb_spec b 245) as [H245|H245]; [|discriminate].
  inversion Htr; subst tr. clear Htr.
  destruct tl as [|b2 tl]; [rewrite prefix_match_nil in Hpm; discriminate|].
  apply complete_in_range in Hpm as [R2 Hpm]. apply in_range_bounds in R2.
  destruct tl as [|b3 tl]; [rewrite prefix_match_nil in Hpm; discriminate|].
  apply complete_in_range in Hpm as [R3 Hpm]. apply in_range_bounds in R3.
  destruct tl as [|b4 tl]; [rewrite prefix_match_nil in Hpm; discriminate|].
  apply complete_in_range in Hpm as [R4 _]. apply in_range_bounds in R4.
  assert (R2' : 128 <= b2 <= 191 /\ (b = 240 -> 144 <= b2) /\ (b = 244 -> b2 <= 143)).
  { destruct (N.eqb_spec b 240); destruct (N.eqb_spec b 244); lia. }
  clear R2.
  unfold valid_head, sequence_length. decide_cmp. cbn [andb firstn utf8_decode]. unfold continuation.
  decide_cmp. cbn [andb]. cbv zeta. decide_cmp. cbn [andb]. eexists _, _; reflexivity.
Qed.

(* 3. The specification's pieces are well sized *)
Lemma utf8_len_encode : forall c, utf8_len c = nlen (utf8_encode c).
Proof.
  intros c. unfold utf8_len, utf8_encode.
  destruct (c <? 128); [reflexivity|]. destruct (c <? 2048); [reflexivity|]. destruct (c <? 65536); reflexivity.
Qed.

Lemma valid_head_facts : forall rem c k, valid_head rem = Some (c, k) ->
    rem <> [] /\ (1 <= k <= length rem)%nat /\ (k <= 4)%nat /\ utf8_len c = N.of_nat k /\
    firstn k rem = utf8_encode c /\ is_scalar_value c = true.
Proof.
  intros [|b tl] c k H; [discriminate|]. unfold valid_head in H.
  destruct (sequence_length b) as [k'|] eqn:Hs; [|discriminate].
  destruct (utf8_decode (firstn k' (b :: tl))) as [c'|] eqn:Hd; [|discriminate].
  inversion H; subst c' k'. clear H.
  pose proof (sequence_length_range _ _ Hs) as Hk.
  destruct (utf8_decode_encode _ _ Hd) as [Hv He].
  assert (Hlen : length (firstn k (b :: tl)) = k).
  { destruct k as [|k]; [lia|]. rewrite firstn_cons_S in Hd. apply utf8_decode_length in Hd.
    rewrite Hs in Hd. inversion Hd as [E]. rewrite firstn_cons_S. cbn [length]. congruence. }
  split; [discriminate|]. split.
  { rewrite firstn_length in Hlen. lia. }
  split; [lia|]. split.
  { rewrite utf8_len_encode, He. unfold nlen. rewrite Hlen. reflexivity. }
  split; [symmetry; exact He|exact Hv].
Qed.

Lemma utf8_next_char : forall rem c k, valid_head rem = Some (c, k) -> utf8_next rem = PChar c (N.of_nat k).
Proof. intros rem c k H. unfold utf8_next. rewrite valid_head_utf8_head, H. reflexivity. Qed.

Lemma utf8_next_bad : forall rem, valid_head rem = None -> utf8_next rem = PBad (maximal_subpart rem).
Proof. intros rem H. unfold utf8_next. rewrite valid_head_utf8_head, H. reflexivity. Qed.

Lemma utf8_next_size : forall bs, bs <> [] -> 1 <= psize (utf8_next bs) <= nlen bs.
Proof.
  intros bs Hne. destruct (valid_head bs) as [[c k]|] eqn:Hv.
  - rewrite (utf8_next_char _ _ _ Hv). cbn [psize].
    destruct (valid_head_facts _ _ _ Hv) as (_ & Hk & _). unfold nlen. lia.
  - rewrite (utf8_next_bad _ Hv). cbn [psize]. apply maximal_subpart_bounds. exact Hne.
Qed.

Lemma utf8_bad_small : forall bs ml, utf8_next bs = PBad ml -> ml <= 255.
Proof.
  intros bs ml H. destruct (valid_head bs) as [[c k]|] eqn:Hv.
  - rewrite (utf8_next_char _ _ _ Hv) in H. discriminate.
  - rewrite (utf8_next_bad _ Hv) in H. inversion H. pose proof (maximal_subpart_le4 bs). lia.
Qed.

(* 4. The fast path *)
Lemma fast8_spec : forall fuel rem spare cs k rest, fast8 fuel rem spare = (cs, k, rest) ->
    good_prefix utf8_next rem cs k /\ rest = skipn (N.to_nat k) rem /\ text_len cs = k /\ k <= spare /\
    ((length rem <= fuel)%nat ->
     rest = [] \/ valid_head rest = None \/ exists c j, valid_head rest = Some (c, j) /\ spare - k < N.of_nat j).
Proof.
  induction fuel as [|f IH]; intros rem spare cs k rest H; cbn [fast8] in H.
  - inversion H; subst. split; [constructor|]. split; [reflexivity|]. split; [reflexivity|]. split; [lia|].
    intros Hl. left. destruct rest; [reflexivity|cbn [length] in Hl; lia].
  - destruct (valid_head rem) as [[c j]|] eqn:Hv.
    + destruct (valid_head_facts _ _ _ Hv) as (Hne & Hj & Hj4 & Hlen & _).
      destruct (N.leb_spec (N.of_nat j) spare) as [Hfit|Hfit].
      * destruct (fast8 f (skipn j rem) (spare - N.of_nat j)) as [[cs1 n1] rest1] eqn:E.
        inversion H; subst cs k rest. clear H.
        destruct (IH _ _ _ _ _ E) as (Hg & Hr & Ht & Hs & Hstop).
        split.
        { apply gp_cons; [exact Hne|apply utf8_next_char; exact Hv|]. rewrite Nat2N.id. exact Hg. }
        split.
        { rewrite Hr. rewrite skipn_N_add. rewrite Nat2N.id. reflexivity. }
        split; [cbn [text_len]; lia|]. split; [lia|].
        intros Hl. rewrite skipn_length in Hstop.
        destruct (Hstop ltac:(lia)) as [Hs1|[Hs1|(c2 & j2 & Hs1 & Hs2)]].
        -- left; exact Hs1.
        -- right; left; exact Hs1.
        -- right; right. exists c2, j2. split; [exact Hs1|lia].
      * inversion H; subst cs k rest. clear H.
        split; [constructor|]. split; [reflexivity|]. split; [reflexivity|]. split; [lia|].
        intros _. right; right. exists c, j. split; [exact Hv|lia].
    + inversion H; subst cs k rest. clear H.
      split; [constructor|]. split; [reflexivity|]. split; [reflexivity|]. split; [lia|].
      intros _. right; left. exact Hv.
Qed.

(* 5. The state machine after a leading byte *)
(* states the decoder can be in between two calls of the loop: the initial one, or — when the input is used
   up — whatever the end-of-input exit leaves (it does not reset the continuation-byte boundaries) *)
Definition u8_bnd (st : u8st) (rem : list N) : Prop := st = u8_new \/ (rem = [] /\ u_needed st = 0).

(* the state expects the continuation bytes of [tr] *)
Definition st_row (st : u8st) (tr : list (N * N)) : Prop :=
  u_needed st <> 0 /\ u_seen st + rlen tr = u_needed st /\ u_needed st <= 3 /\
  exists tr', tr = (u_lo st, u_hi st) :: tr' /\ Forall (fun r => r = cont) tr'.

Lemma u8_pending_malformed : forall tr st rem fuel spare rd,
    st_row st tr -> 4 <= spare -> (length rem < fuel)%nat -> prefix_match tr rem < rlen tr ->
    exists st',
      u8_loop fuel true st rem spare rd
      = (st', XMalformed (u_seen st + 1 + prefix_match tr rem) 0 (rd + prefix_match tr rem), [])
      /\ u8_bnd st' (skipn (N.to_nat (prefix_match tr rem)) rem).
Proof.
  induction tr as [|r tr IH]; intros st rem fuel spare rd Hrow Hsp Hf Hpm.
  { destruct Hrow as (_ & _ & _ & tr' & E & _). discriminate. }
  destruct Hrow as (Hn0 & Hseen & Hn3 & tr' & E & Hcont). inversion E; subst r tr'. clear E.
  rewrite rlen_cons in Hseen.
  destruct fuel as [|f]; [lia|]. cbn [u8_loop].
  rewrite (proj2 (N.eqb_neq (u_needed st) 0) Hn0).
  rewrite N.sub_0_r, N.add_0_r. cbn [app].
  destruct rem as [|b tl].
  - rewrite prefix_match_nil. cbn [andb negb skipn]. rewrite !N.add_0_r.
    rewrite N.mod_small by lia. eexists; split; [reflexivity|]. right. split; reflexivity.
  - rewrite (proj2 (N.ltb_ge spare 4) Hsp).
    rewrite prefix_match_cons in *. unfold in_range in *. cbn [fst snd] in *.
    revert Hpm. destruct ((u_lo st <=? b) && (b <=? u_hi st)) eqn:Hin; intros Hpm; cbn [negb].
    + (* a continuation byte of the row *)
      rewrite rlen_cons in Hpm.
      assert (Htr : tr <> []) by (intros ->; rewrite prefix_match_nil_row in Hpm; unfold rlen in Hpm; cbn [length] in Hpm; lia).
      assert (Hsn : (u_seen st + 1 =? u_needed st) = false).
      { apply N.eqb_neq. destruct tr; [congruence|]. rewrite rlen_cons in Hseen. lia. }
      rewrite Hsn. cbn [negb].
      destruct tr as [|r2 tr2]; [congruence|]. inversion Hcont as [|? ? Hr2 Hcont2]; subst.
      edestruct (IH (U8 (u_cp st * 64 + b mod 64) (u_seen st + 1) (u_needed st) 128 191) tl f spare (rd + 1))
        as (st' & Hrun & Hb).
      * unfold st_row. cbn [u_needed u_seen u_lo u_hi]. split; [exact Hn0|]. split; [lia|]. split; [exact Hn3|].
        exists tr2. split; [reflexivity|exact Hcont2].
      * exact Hsp.
      * cbn [length] in Hf. lia.
      * lia.
      * cbn [u_seen] in Hrun. exists st'. split.
        -- rewrite Hrun. f_equal. f_equal. f_equal; lia.
        -- replace (N.to_nat (1 + prefix_match (cont :: tr2) tl)) with (S (N.to_nat (prefix_match (cont :: tr2) tl))) by lia.
           cbn [skipn]. exact Hb.
    + rewrite !N.add_0_r. rewrite N.mod_small by lia. cbn [skipn].
      eexists; split; [reflexivity|]. left. reflexivity.
Qed.

(* a byte string whose head is not a complete well-formed sequence: what the decoder reports from its
   initial state when, after the fast path, it has room for an astral character *)
Lemma u8_slow_malformed : forall rem cs k b tl f spare0 rd,
    fast8 (length rem) rem spare0 = (cs, k, b :: tl) ->
    valid_head (b :: tl) = None -> 4 <= spare0 - k -> (length tl < f)%nat ->
    exists st',
      u8_loop (S f) true u8_new rem spare0 rd
      = (st', XMalformed (maximal_subpart (b :: tl)) 0 (rd + k + maximal_subpart (b :: tl)), cs ++ [])
      /\ u8_bnd st' (skipn (N.to_nat (maximal_subpart (b :: tl))) (b :: tl)).
Proof.
  intros rem cs k b tl f spare0 rd0 Hfast Hv Hsp Hf.
  assert (Hb : 128 <= b).
  { destruct (N.leb_spec 128 b); [assumption|]. exfalso.
    unfold valid_head, sequence_length in Hv. rewrite (proj2 (N.leb_le b 127)) in Hv by lia.
    cbn [firstn utf8_decode] in Hv. rewrite (proj2 (N.leb_le b 127)) in Hv by lia. discriminate. }
  cbn [u8_loop u8_new u_needed].
  rewrite N.eqb_refl. rewrite Hfast.
  set (spare := spare0 - k) in *. set (rd := rd0 + k).
  rewrite (proj2 (N.ltb_ge spare 4) Hsp).
  rewrite (proj2 (N.ltb_ge b 128) Hb).
  rewrite (maximal_subpart_lead b tl Hb).
  pose proof (row_complete_valid b tl) as Hcomplete.
  unfold tail_row in *.
  destruct (N.ltb_spec b 194) as [H194|H194].
  { cbn [skipn]. replace (N.to_nat 1) with 1%nat by lia. cbn [skipn].
    eexists; split; [reflexivity|]. left; reflexivity. }
  cbn [u8_new u_seen u_lo u_hi].
  assert (Huse : forall tr st, st_row st tr -> u_seen st = 0 ->
             (prefix_match tr tl = rlen tr -> exists c k, valid_head (b :: tl) = Some (c, k)) ->
             exists st',
               (let '(st'0, r, cs') := u8_loop f true st tl spare (rd + 1) in (st'0, r, cs ++ cs'))
               = (st', XMalformed (1 + prefix_match tr tl) 0 (rd + (1 + prefix_match tr tl)), cs ++ [])
               /\ u8_bnd st' (skipn (N.to_nat (1 + prefix_match tr tl)) (b :: tl))).
  { intros tr st Hrow Hseen Hc.
    assert (Hlt : prefix_match tr tl < rlen tr).
    { pose proof (prefix_match_le_row tr tl). destruct (N.eq_dec (prefix_match tr tl) (rlen tr)) as [E|E]; [|lia].
      destruct (Hc E) as (c0 & k0 & Hsome). congruence. }
    destruct (u8_pending_malformed tr st tl f spare (rd + 1) Hrow Hsp Hf Hlt) as (st' & Hrun & Hbnd).
    exists st'. rewrite Hrun, Hseen. split.
    - f_equal. f_equal. f_equal; lia.
    - replace (N.to_nat (1 + prefix_match tr tl)) with (S (N.to_nat (prefix_match tr tl))) by lia.
      cbn [skipn]. exact Hbnd. }
  destruct (N.ltb_spec b 224) as [H224|H224].
  { apply Huse; [|reflexivity|intros E; apply (Hcomplete _ Hb eq_refl E)].
    unfold st_row. cbn [u_needed u_seen u_lo u_hi]. unfold rlen. cbn [length].
    split; [lia|]. split; [lia|]. split; [lia|]. exists []. split; [reflexivity|constructor]. }
  destruct (N.ltb_spec b 240) as [H240|H240].
  { apply Huse; [|reflexivity|intros E; apply (Hcomplete _ Hb eq_refl E)].
    unfold st_row. cbn [u_needed u_seen u_lo u_hi]. unfold rlen. cbn [length].
    split; [lia|]. split; [lia|]. split; [lia|]. exists [cont]. split; [reflexivity|repeat constructor]. }
  destruct (N.ltb_spec b 245) as [H245|H245].
  { apply Huse; [|reflexivity|intros E; apply (Hcomplete _ Hb eq_refl E)].
    unfold st_row. cbn [u_needed u_seen u_lo u_hi]. unfold rlen. cbn [length].
    split; [lia|]. split; [lia|]. split; [lia|]. exists [cont; cont]. split; [reflexivity|repeat constructor]. }
  cbn [skipn]. replace (N.to_nat 1) with 1%nat by lia. cbn [skipn].
  eexists; split; [reflexivity|]. left; reflexivity.
Qed.

(* 6. The per-call specification *)
Definition u8_step (st : u8st) (src : list N) (spare : N) := u8_raw true st src spare.

Lemma u8_call_ok : forall st rem spare, u8_bnd st rem ->
    call_ok u8st u8_step utf8_next u8_bnd 4 st rem spare.
Proof.
  intros st rem spare Hb. unfold call_ok, u8_step, u8_raw.
  destruct Hb as [->|[-> Hn]].
  - destruct (fast8 (length rem) rem spare) as [[cs k] rest] eqn:Hfast.
    destruct (fast8_spec _ _ _ _ _ _ Hfast) as (Hg & Hr & Ht & Hs & Hstop).
    specialize (Hstop (Nat.le_refl _)).
    pose proof (good_prefix_le utf8_next utf8_next_size _ _ _ Hg) as Hk.
    destruct rest as [|b tl].
    + (* the whole input is well formed and fits *)
      cbn [u8_loop u8_new u_needed]. rewrite N.eqb_refl, Hfast. cbn [andb negb].
      rewrite app_nil_r. split; [lia|]. exists k. split; [exact Hg|].
      assert (nlen (skipn (N.to_nat k) rem) = 0) by (rewrite <- Hr; reflexivity).
      rewrite nlen_skipn in *. lia.
    + assert (Hlt : k < nlen rem).
      { assert (nlen (skipn (N.to_nat k) rem) = nlen tl + 1) by (rewrite <- Hr; apply nlen_cons).
        rewrite nlen_skipn in *. lia. }
      destruct (N.ltb_spec (spare - k) 4) as [Hfull|Hroom].
      * (* output full *)
        cbn [u8_loop u8_new u_needed]. rewrite N.eqb_refl, Hfast.
        rewrite (proj2 (N.ltb_lt (spare - k) 4) Hfull). rewrite app_nil_r, N.add_0_l.
        split; [lia|]. exists k. split; [exact Hg|]. split; [reflexivity|]. split; [exact Hlt|].
        split; [lia|]. left. reflexivity.
      * (* the next piece is malformed *)
        assert (Hv : valid_head (b :: tl) = None).
        { destruct Hstop as [E|[E|(c & j & E1 & E2)]]; [discriminate|exact E|].
          destruct (valid_head_facts _ _ _ E1) as (_ & _ & Hj4 & _). lia. }
        assert (Hf : (length tl < length rem)%nat).
        { assert (E : length (skipn (N.to_nat k) rem) = S (length tl)) by (rewrite <- Hr; reflexivity).
          rewrite skipn_length in E. lia. }
        destruct (u8_slow_malformed rem cs k b tl (length rem) spare 0 Hfast Hv Hroom Hf) as (st' & Hrun & Hbnd).
        rewrite Hrun. rewrite app_nil_r, N.add_0_l.
        split; [lia|]. exists k. split; [exact Hg|]. split; [reflexivity|]. split; [exact Hlt|].
        rewrite <- Hr. split; [apply utf8_next_bad; exact Hv|]. split; [reflexivity|].
        rewrite skipn_N_add, <- Hr. exact Hbnd.
  - (* after the end-of-input exit: nothing is left *)
    cbn [length u8_loop]. rewrite Hn. cbn [N.eqb length fast8 andb negb app text_len].
    change (0 =? 0) with true. cbn [fast8 andb negb app text_len].
    split; [lia|]. exists 0. split; [constructor|reflexivity].
Qed.

(* what decode_loop returns over the UTF-8 decoder model alone (no BOM sniffing) *)
Lemma u8_loop_result : forall t g input fuel, (decode_fuel input <= fuel)%nat ->
    result_of input (xdecode_loop_impl u8_step fuel u8_new (xtrap_of t g) input)
    = apply_trap t input 0 (pieces utf8_next input) [].
Proof.
  intros t g input fuel Hf. unfold xdecode_loop_impl.
  apply (xloop_result u8st u8_step utf8_next u8_bnd DECODER_K RESERVE_DIV RESERVE_MIN
           utf8_next_size utf8_bad_small reserve_min_covers_decoder u8_call_ok t g input u8_new fuel);
    [left; reflexivity|exact Hf].
Qed.
