(* A LEAF token carries content, and is neither a stream or document indicator nor the start or end of a collection.
   The character-level scanners that produce a token (directives, tags, anchors and aliases, the three kinds of
   scalar) return one: [leaf_scan_*] in Proofs/DocScan.v.  What a client needs to know of such a token (it opens no
   collection, it is not StreamEnd, it is not a document marker) follows by [Res_impl]. *)
Require Import Parser.

Definition is_leaf (t : tok) : bool :=
  match t with
  | TVersionDirective _ _ | TTagDirective _ _ | TAlias _ | TAnchor _ | TTag _ _ | TScalar _ _ => true
  | _ => false
  end.
Definition leaf (t : token) : Prop := is_leaf (snd t) = true.
