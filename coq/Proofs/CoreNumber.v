(* The regex-shaped number matcher of the spec (CoreSchema.core_number) and the model of Rust's
   f64 grammar (Resolver.rust_number) accept the same strings with the same exact value. *)
From Coq Require Import List NArith ZArith Bool Lia.
Import ListNotations.
Require Import Resolver CoreSchema.
Open Scope Z_scope.

Lemma span_digits_all ds :
  nonempty ds && all_in is_dig ds = true -> span_digits ds = (ds, []).
Proof.
  intros H. apply andb_true_iff in H as [_ H]. unfold all_in in H.
  induction ds as [|c r IH]; [reflexivity|].
  cbn in H. apply andb_true_iff in H as [Hc Hr]. cbn [span_digits]. rewrite Hc, (IH Hr). reflexivity.
Qed.

Lemma span_digits_spec s a b : span_digits s = (a, b) -> s = a ++ b /\ forallb is_dig a = true.
Proof.
  revert a b; induction s as [|c r IH]; intros a b H; cbn in H.
  - inversion H; subst; auto.
  - destruct (is_dig c) eqn:E.
    + destruct (span_digits r) as [a' b'] eqn:E'. inversion H; subst.
      destruct (IH a' b eq_refl) as [-> Hf]. cbn. rewrite E, Hf. auto.
    + inversion H; subst. auto.
Qed.

Lemma span_digits_rest_nil ds ed : span_digits ds = (ed, []) -> ed = ds /\ forallb is_dig ds = true.
Proof.
  intros H. destruct (span_digits_spec _ _ _ H) as [-> Hf]. rewrite app_nil_r. auto.
Qed.

(* the optional sign, as the three shapes of the text *)
Variant sign_split_spec : str -> bool * str -> Prop :=
| SignPlus r : sign_split_spec (43%N :: r) (false, r)
| SignMinus r : sign_split_spec (45%N :: r) (true, r)
| SignNone s : starts_signed s = false -> sign_split_spec s (false, s).
Lemma sign_split_cases s : sign_split_spec s (sign_split s).
Proof.
  destruct s as [|c r]; [apply SignNone; reflexivity|]. cbn [sign_split]. unfold ch.
  destruct (N.eqb_spec c 43) as [->|H1]; [constructor|]. destruct (N.eqb_spec c 45) as [->|H2]; [constructor|].
  apply SignNone. cbn [starts_signed]. unfold ch. apply orb_false_iff. split; apply N.eqb_neq; assumption.
Qed.

(* Rust spells the sign test of the exponent out; it is sign_split *)
Lemma exp_equiv (m e0 : Z) (r2 : str) :
  match r2 with
  | [] => Some (m, e0)
  | c :: r =>
      if ch c 101 || ch c 69 then
        let '(eneg, ds) := sign_split r in
        let '(ed, rest) := span_digits ds in
        match ed, rest with
        | _ :: _, [] => Some (m, e0 + (if (eneg : bool) then - dval ed else dval ed))
        | _, _ => None
        end
      else None
  end = exp_part m e0 r2.
Proof.
  unfold exp_part. destruct r2 as [|c r]; [reflexivity|].
  destruct (ch c 101 || ch c 69); [|reflexivity].
  destruct (sign_split r) as [eneg ds]. destruct (nonempty ds && all_in is_dig ds) eqn:E.
  - rewrite (span_digits_all _ E). destruct ds; [discriminate|reflexivity].
  - destruct (span_digits ds) as [ed rest] eqn:S. destruct ed as [|x ed]; [reflexivity|].
    destruct rest; [|reflexivity].
    destruct (span_digits_rest_nil _ _ S) as [<- Hf]. unfold all_in in E. rewrite Hf in E. cbn in E. discriminate.
Qed.

Lemma rust_number_core b : rust_number b = core_number b.
Proof.
  unfold rust_number, core_number. destruct (span_digits b) as [ip r1].
  destruct r1 as [|c r].
  - destruct ip; [reflexivity|]. cbn [nonempty]. rewrite app_nil_r. reflexivity.
  - destruct (ch c 46) eqn:Ed.
    + destruct (span_digits r) as [fp r2].
      destruct ip as [|i ip]; destruct fp as [|f fp]; cbn [nonempty orb]; try reflexivity;
        match goal with |- _ = exp_part ?m ?e ?r => rewrite <- (exp_equiv m e r); reflexivity end.
    + destruct ip as [|i ip]; [reflexivity|]. cbn [nonempty]. rewrite app_nil_r.
      change (- Z.of_nat (length (@nil chr))) with 0.
      rewrite <- (exp_equiv (dval (i :: ip)) 0 (c :: r)). reflexivity.
Qed.
