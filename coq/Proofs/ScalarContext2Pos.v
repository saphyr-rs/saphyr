(* C05 / C04 in document context, a follower behind the scalar -- generic part:
     - the skeleton lemmas dash_sp, key_at_tok, key_unit, arrive_tok, arrive_blank of Proofs/ScanBlockProofs.v restated
       with the position of the scanner EXPLICIT ([at_tok_p], [at_below_p]: index and line of the mark are parameters instead
       of being hidden behind an existential), so that the position invariant of Proofs/ScanPos.v ([MarkOK]: the mark is the
       true position of the consumed prefix) can be established at the scalar;
     - from [MarkOK] behind a scalar that has consumed a line break: the mark stands at column 0 of a later line;
     - the state behind the scalar (indentation stack unchanged or without its non-block records) fetches like the state
       [at_tok] describes; composition of [delivers] with [ends_with]. *)
From Coq Require Import List NArith ZArith Bool Arith Lia.
Import ListNotations.
Require Import Parser SBase SFetch FlowText ScanFlowProofs ScanBlockProofs ScalarContext ScalarContextFlow Positions ScanPos.
Open Scope N_scope.
Open Scope mon_scope.

#[local] Arguments need_comp : simpl never.

(* the skeleton with explicit positions *)
Definition at_tok_p (s : sc strin) (cs : list N) (c : nat) (cols : list N) (i ln : N) : Prop :=
  exists l adj k tp lws,
    s = mkb cs l (mkm i ln (N.of_nat c)) [] adj true k (fst (stk cols)) (snd (stk cols)) tp false lws /\ key_done k ln.
Definition at_below_p (s : sc strin) (cs : list N) (cols : list N) (i ln c0 : N) : Prop :=
  exists l adj ska k tp top rest,
    cols = top :: rest /\ top <= c0 /\
    s = mkb cs l (mkm i ln c0) [] adj ska k (Z.of_N top + 1)%Z (nbl (Z.of_N top) :: snd (stk cols)) tp false false /\
    sk_possible k = false.

Lemma at_tok_p_at s cs c cols i ln : at_tok_p s cs c cols i ln -> at_tok s cs c cols.
Proof. intros (l & adj & k & tp & lws & E & Hk). exists l, i, ln, adj, k, tp, lws. split; assumption. Qed.
Lemma at_below_p_at s cs cols i ln c0 : at_below_p s cs cols i ln c0 -> at_below s cs cols.
Proof. intros (l & adj & ska & k & tp & top & rest & E1 & E2 & E3 & Hk). exists l, i, ln, c0, adj, ska, k, tp, top, rest. repeat split; assumption. Qed.

Lemma start_at_tok_p txt : at_tok_p (start_state txt) txt 0 [] 0 1.
Proof. exists 1%nat, 0, dummy_key, 1, true. split; [reflexivity|left; reflexivity]. Qed.

Lemma arrive_tok_p F s x cs c ext base i ln :
  at_tok_p s (x :: cs) c (ext ++ base) i ln -> first_ok x -> (x =? 0) = false ->
  Forall (fun e => (Z.of_nat c < Z.of_N e)%Z) ext -> base_le base (Z.of_nat c) -> (1 <= F)%nat ->
  canon s /\
  exists l' adj k tp lws,
    (4 <= l')%nat /\ sk_possible k = false /\
    fetch_next_token str_ops F s
    = fnt_rest F (mkb (x :: cs) l' (mkm i ln (N.of_nat c)) (repeat (be_tok (mkm i ln (N.of_nat c))) (length ext)) adj true k
                       (fst (stk base)) (snd (stk base)) tp false lws).
Proof.
  intros (l & adj & k & tp & lws & -> & Hk) Hx Hx0 Hext Hbase HF. split; [apply canon_b|].
  destruct (key_done_stale k i ln (N.of_nat c) Hk) as [Hst Hnp].
  exists (Nat.max (Nat.max (Nat.max l 1) 1) 4), adj, (staled k (mkm i ln (N.of_nat c))), tp, lws.
  split; [lia|]. split; [exact Hnp|].
  erewrite fnt_b; [ | apply skip_none; [exact HF | exact Hx] | exact Hst
                    | cbn [m_col mkm]; rewrite nat_N_Z; apply unroll_stk; [exact Hext | exact Hbase | rewrite stk_len, app_length; lia] ].
  cbn [app]. apply tail_char, Hx0.
Qed.

Lemma arrive_blank_p F s x cs cols i ln c0 :
  at_below_p s (32 :: x :: cs) cols i ln c0 -> first_ok x -> (x =? 0) = false -> (2 <= F)%nat ->
  canon s /\
  exists l' adj ska k tp top rest,
    cols = top :: rest /\ top < c0 + 1 /\ (4 <= l')%nat /\ sk_possible k = false /\
    fetch_next_token str_ops F s
    = fnt_rest F (mkb (x :: cs) l' (mkm (i + 1) ln (c0 + 1)) [] adj ska k
                       (Z.of_N top + 1)%Z (nbl (Z.of_N top) :: snd (stk cols)) tp false false).
Proof.
  intros (l & adj & ska & k & tp & top & rest & -> & Htop & -> & Hk) Hx Hx0 HF. split; [apply canon_b|].
  destruct Hx as (H32 & H9 & H10 & H13 & H35).
  exists (Nat.max (Nat.max (Nat.max l 1) 1) 4), adj, ska, k, tp, top, rest.
  split; [reflexivity|]. split; [lia|]. split; [lia|]. split; [exact Hk|].
  erewrite fnt_b; [ | apply (skip_spaces_b 1); [lia | assumption..] | rewrite (stale_k_not_possible _ _ Hk); reflexivity
                    | cbn [m_col mkm]; apply unroll_keep; lia ].
  unfold staled. rewrite (stale_k_not_possible _ _ Hk). cbn [repeat]. rewrite app_nil_r.
  change (N.of_nat 1) with 1. apply tail_char, Hx0.
Qed.

Lemma tok_p_before_node F s x cs c cols i ln :
  at_tok_p s (x :: cs) c cols i ln -> (fst (stk cols) < Z.of_nat c)%Z -> first_ok x -> (x =? 0) = false -> (1 <= F)%nat ->
  before_node F s (x :: cs) (fst (stk cols)) (snd (stk cols)) (eq (mkm i ln (N.of_nat c))).
Proof.
  intros Hat Hlt Hfo Hnz HF.
  assert (Hbase : base_le cols (Z.of_nat c)) by (destruct cols as [|t0 r]; cbn in *; lia).
  destruct (arrive_tok_p F s x cs c [] cols i ln Hat Hfo Hnz ltac:(constructor) Hbase HF)
    as (Hcanon & l & adj & k & tp & lws & Hl & Hk & Hf).
  split; [exact Hcanon|]. split; [apply grounded_stk, Forall_forall; auto|].
  exists l, (mkm i ln (N.of_nat c)), adj, true, k, tp, lws. repeat split; try assumption.
  unfold req. cbn [m_col mkm]. replace (fst (stk cols) =? Z.of_N (N.of_nat c))%Z with false; [reflexivity|].
  symmetry. apply Z.eqb_neq. lia.
Qed.

Lemma below_p_before_node F s x cs top rest i ln c0 :
  at_below_p s (32 :: x :: cs) (top :: rest) i ln c0 -> first_ok x -> (x =? 0) = false -> (2 <= F)%nat ->
  before_node F s (x :: cs) (Z.of_N top + 1)%Z (nbl (Z.of_N top) :: snd (stk (top :: rest))) (eq (mkm (i + 1) ln (c0 + 1))).
Proof.
  intros Hat Hfo Hnz HF.
  destruct (arrive_blank_p F s x cs (top :: rest) i ln c0 Hat Hfo Hnz HF)
    as (Hcanon & l & adj & ska & k & tp & top' & rest' & [= <- <-] & Hc1 & Hl & Hk & Hf).
  split; [exact Hcanon|]. split; [apply grounded_below|].
  exists l, (mkm (i + 1) ln (c0 + 1)), adj, ska, k, tp, false. repeat split; try assumption.
  unfold req. cbn [nbl in_needs_block_end]. apply andb_false_r.
Qed.

(* "- x" *)
Lemma dash_sp_p F s x r c ext base opens i ln :
  at_tok_p s (45 :: 32 :: x :: r) c (ext ++ base) i ln ->
  Forall (fun e => (Z.of_nat c < Z.of_N e)%Z) ext -> joins opens c base ->
  not_ws x -> is_break x = false -> is_flow x = false -> (c + 2 <= F)%nat ->
  exists toks s', delivers F s toks s' /\ map snd toks = dash_toks (length ext) opens /\
                  at_tok_p s' (x :: r) (c + 2) (joined opens c base) (i + 2) ln.
Proof.
  intros Hat Hext Hj Hx Hbr Hfl HF.
  destruct (arrive_tok_p F s 45 (32 :: x :: r) c ext base i ln Hat ltac:(repeat split; reflexivity) eq_refl Hext (joins_base_le _ _ _ Hj) ltac:(lia))
    as (Hcanon & l' & adj & k & tp & lws & Hl' & Hk & Hf).
  rewrite rest_dash in Hf; [ | exact Hl' | reflexivity | reflexivity | apply col_ge_top, (joins_base_le _ _ _ Hj)].
  rewrite (entry_step_sp F i ln (N.of_nat c) (repeat (be_tok (mkm i ln (N.of_nat c))) (length ext)) _ (fst (stk base)) _ (snd (stk base)) _
             (roll_joins opens c base TBlockSequenceStart (mkm i ln (N.of_nat c)) Hj _) (plain_last_be (mkm i ln (N.of_nat c)) _) x r l' adj k tp false lws ltac:(lia) Hx Hbr Hfl
             ltac:(unfold not_req; rewrite Hk; reflexivity)) in Hf.
  eexists. eexists. split; [|split].
  - eapply unit1'; [lia | exact Hcanon | | exact Hf | | reflexivity].
    + intros E. apply app_eq_nil in E as [_ E]. discriminate.
    + apply no_se_app; [apply no_se_app; [apply no_se_be|destruct opens; repeat constructor; discriminate]|repeat constructor; discriminate].
  - rewrite !map_app, map_snd_be. unfold dash_toks. rewrite <- app_assoc. destruct opens; reflexivity.
  - eexists _, _, _, _, _. split.
    + replace (N.of_nat (c + 2)) with (N.of_nat c + 2) by lia. destruct (stk (joined opens c base)); reflexivity.
    + left; reflexivity.
Qed.

(* "key:" *)
Lemma key_unit_p F s adj tp y r l1 i ln c len pre sp kw rq base opens :
  (3 <= F)%nat -> canon s ->
  fetch_next_token str_ops F s
    = Ok (tt, mkb (58 :: y :: r) l1 (mkm (i + len) ln (N.of_nat c + len)) (pre ++ [(sp, TScalar Plain kw)]) adj false
                (newkey rq (tp + N.of_nat (length pre)) (mkm i ln (N.of_nat c))) (fst (stk base)) (snd (stk base)) tp false false) ->
  0 < len -> len <= SIMPLE_KEY_MAX -> y = 32 \/ y = 10 -> joins opens c base -> no_se pre ->
  exists q3 s', delivers F s (pre ++ q3) s' /\ map snd q3 = key_toks opens kw /\
                at_below_p s' (y :: r) (joined opens c base) (i + len + 1) ln (N.of_nat c + len + 1).
Proof.
  intros HF Hcanon Hf1 Hlen0 Hlen Hy Hj Hpre.
  set (K := newkey rq (tp + N.of_nat (length pre)) (mkm i ln (N.of_nat c))) in *.
  set (m1 := mkm (i + len) ln (N.of_nat c + len)) in *.
  assert (Hst1 : stale_k K m1 = false).
  { unfold stale_k, K, m1, newkey, mkm. cbn. rewrite N.ltb_irrefl. cbn.
    apply N.ltb_ge. lia. }
  assert (Hyb : is_blank_or_breakz y = true /\ (y =? 9) = false) by (destruct Hy as [-> | ->]; split; reflexivity).
  destruct Hyb as [Hyb Hy9].
  assert (Hle : (fst (stk base) <= Z.of_N (N.of_nat c + len))%Z).
  { pose proof (stk_top_le base (N.of_nat c) ltac:(rewrite nat_N_Z; apply (joins_base_le _ _ _ Hj))). lia. }
  assert (Hf2 : exists l3, fetch_next_token str_ops F (mkb (58 :: y :: r) l1 m1 [(sp, TScalar Plain kw)] adj false K (fst (stk base)) (snd (stk base))
                                               (tp + N.of_nat (length pre)) false false)
                = Ok (tt, mkb (y :: r) l3 (mkm (i + len + 1) ln (N.of_nat c + len + 1))
                            (([] ++ (if opens then [(span_empty (mkm i ln (N.of_nat c)), TBlockMappingStart)] else [])
                                 ++ [key_tok (mkm i ln (N.of_nat c)); (sp, TScalar Plain kw)])
                               ++ [(span_empty m1, TValue)])
                            adj false (unposs K) (Z.of_N (N.of_nat c) + 1)%Z
                            (nbl (Z.of_N (N.of_nat c)) :: snd (stk (joined opens c base))) (tp + N.of_nat (length pre)) false false)).
  { eexists. erewrite fnt_b; [ | apply skip_none; [lia | repeat split; reflexivity] | rewrite Hst1; reflexivity
                      | apply unroll_keep; exact Hle].
    unfold staled. rewrite Hst1. cbn [repeat]. rewrite app_nil_r.
    rewrite tail_char by reflexivity.
    unfold m1. rewrite rest_colon; [ | exact Hyb | apply N.eqb_neq; lia | apply Z.ltb_ge; exact Hle].
    pose proof (value_step_b F opens y r (Nat.max (Nat.max (Nat.max l1 1) 1) 4) (i + len) ln (N.of_nat c + len) [] (sp, TScalar Plain kw) adj false rq i (N.of_nat c)
                  (fst (stk base)) (snd (stk base)) (tp + N.of_nat (length pre)) false false Hyb Hy9 (nb_top_stk base)) as V.
    cbn [length N.of_nat app] in V. rewrite N.add_0_r in V. fold K in V. cbn [app].
    etransitivity; [apply V|].
    - destruct opens; cbn in Hj |- *.
      + destruct Hj as [H1 H2]. split; [rewrite nat_N_Z; exact H1 | rewrite stk_len; exact H2].
      + destruct Hj as (rest & ->). split; [reflexivity | discriminate].
    - unfold m1. destruct opens; reflexivity. }
  destruct Hf2 as (l3 & Hf2).
  eexists. eexists. split; [|split].
  - eapply (unit2' F s adj tp (58 :: y :: r) l1 m1 pre (sp, TScalar Plain kw) false rq (mkm i ln (N.of_nat c)));
      [exact HF | exact Hcanon | | exact Hf1 | exact Hst1 | exact Hf2 | exact Hpre | | reflexivity].
    + intros E. apply app_eq_nil in E as [_ E]. discriminate.
    + destruct opens; repeat constructor; discriminate.
  - unfold key_toks. destruct opens; reflexivity.
  - destruct (joined_cons opens c base Hj) as (rest & Ej). rewrite Ej.
    eexists _, _, _, _, _, (N.of_nat c), rest. split; [reflexivity|]. split; [lia|]. split; [rewrite <- Ej; reflexivity|reflexivity].
Qed.

Lemma key_at_tok_p F s c0 w y r c ext base opens i ln :
  at_tok_p s (c0 :: w ++ 58 :: y :: r) c (ext ++ base) i ln ->
  forallb wch (c0 :: w) = true -> wlen c0 w <= SIMPLE_KEY_MAX -> y = 32 \/ y = 10 ->
  Forall (fun e => (Z.of_nat c < Z.of_N e)%Z) ext -> joins opens c base -> (2 * length w + 3 <= F)%nat ->
  exists toks s', delivers F s toks s' /\ map snd toks = repeat TBlockEnd (length ext) ++ key_toks opens (c0 :: w) /\
                  at_below_p s' (y :: r) (joined opens c base) (i + wlen c0 w + 1) ln (N.of_nat c + wlen c0 w + 1).
Proof.
  intros Hat Hw Hlen Hy Hext Hj HF.
  pose proof Hw as Hw0. cbn [forallb] in Hw0. apply andb_prop in Hw0 as [Hc0 _]. destruct (wch_first_ok c0 Hc0) as [Hfo Hnz].
  destruct (arrive_tok_p F s c0 (w ++ 58 :: y :: r) c ext base i ln Hat Hfo Hnz Hext (joins_base_le _ _ _ Hj) ltac:(lia))
    as (Hcanon & l' & adj & k & tp & lws & Hl' & Hk & Hf).
  rewrite rest_key in Hf; [ | exact Hw | exact Hl' | apply col_ge_top, (joins_base_le _ _ _ Hj)].
  assert (Hyb : is_blank_or_breakz y = true) by (destruct Hy as [-> | ->]; reflexivity).
  destruct (word_key_step F c0 w y r l' i ln (N.of_nat c) (repeat (be_tok (mkm i ln (N.of_nat c))) (length ext)) adj true k
              (fst (stk base)) (snd (stk base)) (fst (stk base)) (snd (stk base)) tp false lws Hw Hyb
              ltac:(rewrite unroll_nb_stk; destruct (stk base); reflexivity) (stk_req_ne base (N.of_nat c)) HF) as (l1 & E1).
  rewrite E1 in Hf. unfold saved in Hf. cbn [m_col mkm] in Hf.
  destruct (key_unit_p F s adj tp y r l1 i ln c (wlen c0 w) (repeat (be_tok (mkm i ln (N.of_nat c))) (length ext)) _ (c0 :: w) _ base opens
              ltac:(lia) Hcanon Hf ltac:(unfold wlen; cbn [length]; lia) Hlen Hy Hj (no_se_be _ _)) as (q3 & s' & Hd & Hm & Hb).
  exists (repeat (be_tok (mkm i ln (N.of_nat c))) (length ext) ++ q3), s'. split; [exact Hd|]. split; [|exact Hb].
  rewrite map_app, map_snd_be. f_equal. exact Hm.
Qed.

(* the recount of positions (Spec/Positions.v) behind a line break *)
Lemma pos_go_nil m l k : pos_go [] m l k = (l, k).
Proof. destruct m; reflexivity. Qed.

Lemma pos_go_add : forall n s m l k,
  pos_go s (n + m) l k = pos_go (skipn n s) m (fst (pos_go s n l k)) (snd (pos_go s n l k)).
Proof.
  induction n as [|n IH]; intros s m l k; [rewrite pos_go_0; reflexivity|].
  destruct s as [|c r]; [cbn [Nat.add skipn]; rewrite !pos_go_nil; reflexivity|].
  cbn [Nat.add skipn]. rewrite !pos_go_S.
  destruct (c =? 13); [destruct (starts_lf r); apply IH|]. destruct (c =? 10); apply IH.
Qed.

Lemma pos_go_line_le : forall n s l k, l <= fst (pos_go s n l k).
Proof.
  induction n as [|n IH]; intros s l k; [rewrite pos_go_0; cbn; lia|].
  destruct s as [|c r]; [rewrite pos_go_nil; cbn; lia|]. rewrite pos_go_S.
  destruct (c =? 13); [destruct (starts_lf r)|destruct (c =? 10)];
    match goal with |- _ <= fst (pos_go ?s ?n ?l' ?k') => pose proof (IH s l' k') end; lia.
Qed.

Lemma pos_go_line_mono s n m l k : (n <= m)%nat -> fst (pos_go s n l k) <= fst (pos_go s m l k).
Proof.
  intros H. replace m with (n + (m - n))%nat by lia. rewrite pos_go_add. apply pos_go_line_le.
Qed.

Lemma pos_go_nobreak : forall p r l k, forallb (fun c => negb (is_break c)) p = true ->
  pos_go (p ++ r) (length p) l k = (l, k + N.of_nat (length p)).
Proof.
  induction p as [|c p IH]; intros r l k H; [cbn [app length]; rewrite pos_go_0; f_equal; lia|].
  cbn [forallb] in H. apply andb_prop in H as [Hc H]. apply negb_true_iff in Hc. unfold is_break in Hc. apply orb_false_elim in Hc as [H10 H13].
  cbn [app length]. rewrite pos_go_S, H13, H10, IH by exact H. f_equal. lia.
Qed.

Lemma starts_lf_hd r : (hd 0 r =? 10) = false -> starts_lf r = false.
Proof.
  destruct r as [|y r]; [reflexivity|]. cbn [hd]. intros H. unfold starts_lf.
  destruct y as [|p]; [reflexivity|]. repeat (destruct p as [p|p|]; try reflexivity). discriminate H.
Qed.

(* how a line break is written *)
Definition brk_src (brk : N) : list N := if brk =? 1 then [13; 10] else if brk =? 2 then [13] else [10].

Lemma pos_after_break p brk rest n0 l0 k0 :
  (hd 0 rest =? 10) = false -> (n0 <= length p)%nat ->
  snd (pos_go (p ++ brk_src brk ++ rest) (length (p ++ brk_src brk)) l0 k0) = 0
  /\ fst (pos_go (p ++ brk_src brk ++ rest) n0 l0 k0) < fst (pos_go (p ++ brk_src brk ++ rest) (length (p ++ brk_src brk)) l0 k0).
Proof.
  intros Hr Hn. pose proof (starts_lf_hd rest Hr) as Hlf.
  pose proof (pos_go_line_mono (p ++ brk_src brk ++ rest) n0 (length p) l0 k0 Hn) as Hmono.
  unfold brk_src in *. destruct (brk =? 1); [|destruct (brk =? 2)]; cbn [app] in *; rewrite app_length; cbn [length].
  - replace (length p + 2)%nat with (S (length (p ++ [13]))) by (rewrite app_length; cbn [length]; lia).
    replace (p ++ 13 :: 10 :: rest) with ((p ++ [13]) ++ 10 :: rest) in * by (rewrite <- app_assoc; reflexivity).
    rewrite (pos_go_app_step (p ++ [13]) 10 rest l0 k0).
    destruct (pos_go ((p ++ [13]) ++ 10 :: rest) (length (p ++ [13])) l0 k0) as [l1 k1] eqn:E1.
    change (10 =? 13) with false. change (10 =? 10) with true. cbv iota. cbn [fst snd]. split; [reflexivity|].
    pose proof (pos_go_line_mono ((p ++ [13]) ++ 10 :: rest) (length p) (length (p ++ [13])) l0 k0 ltac:(rewrite app_length; lia)) as H2.
    rewrite E1 in H2. cbn [fst] in H2. lia.
  - replace (length p + 1)%nat with (S (length p)) by lia. rewrite (pos_go_app_step p 13 rest l0 k0).
    destruct (pos_go (p ++ 13 :: rest) (length p) l0 k0) as [l1 k1]. change (13 =? 13) with true. cbv iota. rewrite Hlf. cbn [fst snd] in *. split; [reflexivity|lia].
  - replace (length p + 1)%nat with (S (length p)) by lia. rewrite (pos_go_app_step p 10 rest l0 k0).
    destruct (pos_go (p ++ 10 :: rest) (length p) l0 k0) as [l1 k1]. change (10 =? 13) with false. change (10 =? 10) with true. cbv iota.
    cbn [fst snd] in *. split; [reflexivity|lia].
Qed.

(* a scanner that keeps the position invariant has consumed [P ++ break] and stands in front of [R]: column 0 of a later line *)
Lemma mark_behind_break orig pre0 (S1 s' : sc strin) P brk R :
  MarkAt orig pre0 S1 -> MarkOK orig s' ->
  si_chars (sc_in s') = R -> orig = P ++ brk_src brk ++ R -> (hd 0 R =? 10) = false -> (length pre0 <= length P)%nat ->
  m_col (sc_mark s') = 0 /\ m_line (sc_mark S1) < m_line (sc_mark s').
Proof.
  intros (E0 & I0 & P0) (pre' & E' & I' & P') HR Eo Hhd Hlen. unfold rem in E'. rewrite HR in E'.
  assert (Epre : pre' = P ++ brk_src brk).
  { apply (app_inv_tail R). rewrite <- E', Eo, <- app_assoc. reflexivity. }
  subst pre'. rewrite Eo in P0, P'.
  destruct (pos_after_break P brk R (length pre0) 1 0 Hhd Hlen) as [Hc Hl].
  unfold chr in *. rewrite <- P0 in Hl. rewrite <- P' in Hl. rewrite <- P' in Hc. cbn [fst snd] in Hc, Hl. split; assumption.
Qed.

(* the state behind the scalar fetches like the at_tok state *)
Lemma next_token_fetch_eq F (A B : sc strin) : (1 <= F)%nat -> canon A -> canon B ->
  fetch_next_token str_ops F A = fetch_next_token str_ops F B -> next_token str_ops F A = next_token str_ops F B.
Proof.
  intros HF (Aq & Ata & Ase) (Bq & Bta & Bse) H. destruct F as [|F]; [lia|].
  unfold next_token. cbn. rewrite Ase, Bse, Ata, Bta. cbn. rewrite !fmt_S. cbn. rewrite (need_canon A Aq), (need_canon B Bq). cbn. rewrite H. reflexivity.
Qed.

Lemma ends_with_fetch_eq F (A B : sc strin) T : (1 <= F)%nat -> canon A -> canon B ->
  fetch_next_token str_ops F A = fetch_next_token str_ops F B -> ends_with F B T -> ends_with F A T.
Proof.
  intros HF HA HB H (toks & Hm & Hscan). exists toks. split; [exact Hm|]. intros fuel acc Hf.
  rewrite (scan_all_next F A B fuel acc (next_token_fetch_eq F A B HF HA HB H)). apply Hscan, Hf.
Qed.

Lemma ends_with_delivers F s pre s' T : delivers F s pre s' -> ends_with F s' T -> ends_with F s (map snd pre ++ T).
Proof.
  intros Hd (toks & Hm & Hscan). exists (pre ++ toks). split; [rewrite map_app; f_equal; exact Hm|].
  intros fuel acc Hf. rewrite app_length in Hf.
  assert (Ef : exists f2, fuel = (length pre + f2)%nat /\ (length toks < f2)%nat) by (exists (fuel - length pre)%nat; unfold token in *; lia).
  destruct Ef as (f2 & -> & Hf2). rewrite Hd. rewrite (Hscan f2 _ Hf2). rewrite rev_app_distr, rev_involutive, <- app_assoc. reflexivity.
Qed.

(* behind a scalar under a collection at column 0: the stack is that of [at_tok] or still carries the one-column raise of
   "key:"; at column 0 both unroll to the collection *)
Lemma sibling_fetch_eq F x cs l i ln adj k ind inds tp lws :
  first_ok x -> (1 <= F)%nat -> (stale_k k (mkm i ln 0) && sk_required k) = false ->
  (ind, inds) = stk [0] \/ (ind, inds) = (1%Z, nbl 0 :: snd (stk [0])) ->
  fetch_next_token str_ops F (mkb (x :: cs) l (mkm i ln 0) [] adj true k ind inds tp false lws)
  = fetch_next_token str_ops F (mkb (x :: cs) l (mkm i ln 0) [] adj true k (fst (stk [0])) (snd (stk [0])) tp false lws).
Proof.
  intros Hx HF Hst [E|E]; injection E as -> ->; [reflexivity|].
  erewrite fnt_b; [ | apply skip_none; [exact HF | exact Hx] | exact Hst | cbn [m_col mkm]; reflexivity ].
  erewrite (fnt_b F (x :: cs) l (mkm i ln 0) [] adj true k (fst (stk [0])));
    [ | apply skip_none; [exact HF | exact Hx] | exact Hst | cbn [m_col mkm]; reflexivity ].
  reflexivity.
Qed.
