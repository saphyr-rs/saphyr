(* C15 tail independence of the scanner (see ScanShift.v): the token-level skeleton of Model/SFetch.v under the
   state relation [SH d]: the walk of ScanLockFetch.v at the token-level lock [shf_klock d].
   Simple keys are related by [KS d] (mark and token number only while the key is possible), the token counter is
   shifted by [sh_k d], and adjacent_value_allowed_at is compared with the index only inside a flow collection.  The
   five character-level contracts of ScanShiftDir.v, ScanShiftFlow.v, ScanShiftPlain.v and ScanShiftBlock.v
   (directive, tag, flow / plain / block scalar) are hypotheses of the section.
     fetch_next_token_gen   the step after StreamStart from two states whose leading skip_to_next_token runs end in
                            related states (used at the document boundary, ScanShiftTop.v) *)
From Coq Require Import List NArith ZArith Bool Arith Lia.
Import ListNotations.
Require Import Parser SBase SPrim SDir SScalar SFetch ScanLock ScanLockPrim ScanShift ScanShiftPrim.
Require ScanLockFetch.
Local Open Scope nat_scope.

Lemma ES_panic_r d e n : ES d e (SPanic n).
Proof. destruct e; exact I. Qed.
Lemma ES_fuel_r d e : ES d e SFuel.
Proof. destruct e; exact I. Qed.
Lemma ES_panic_l d e n : ES d (SPanic n) e.
Proof. destruct e; exact I. Qed.
Lemma ES_fuel_l d e : ES d SFuel e.
Proof. destruct e; exact I. Qed.

(* over states that are variables this is cheap to check; over nests of setters it is not *)
Lemma SH_nb1_lock d (u1 u2 : bst) : SH d (nb1 u1) (nb1 u2) -> SH d (ScanLock.nb1 u1) (ScanLock.nb1 u2).
Proof. intros H. exact H. Qed.

Section ShiftFetch.
Variable d : shift.
Local Notation bwp := (swp d).

Hypothesis H_dir : shf_scan_directive d.
Hypothesis H_tag : shf_scan_tag d.
Hypothesis H_flow : shf_scan_flow_scalar d.
Hypothesis H_plain : shf_scan_plain_scalar d.
Hypothesis H_block : shf_scan_block_scalar d.

(* the 1024-character test and the line test on the implicit key of a flow-sequence pair (fetch_value) are invariant
   under the shift *)
Lemma key_far_brk c1 c2 k1 k2 : KS d k1 k2 -> MS d c1 c2 -> sk_possible k1 = true ->
  ((m_line (sk_mark k2) <? m_line c2)%N || (m_index (sk_mark k2) + SIMPLE_KEY_MAX <? m_index c2)%N)
  = ((m_line (sk_mark k1) <? m_line c1)%N || (m_index (sk_mark k1) + SIMPLE_KEY_MAX <? m_index c1)%N).
Proof.
  intros HK HC EP. pose proof (ks_mark HK EP) as M.
  rewrite (MS_line_ltb d _ _ _ _ M HC), (MS_index_far d _ _ _ _ SIMPLE_KEY_MAX M HC). reflexivity.
Qed.

(* [SH d] with [KS d] is a lock at the token level *)
Lemma shf_klock : klock b1 (MS d) (SH d) (sh_k d) (fun _ _ => KS d).
Proof.
  constructor.
  - exact (shf_lock d).
  - intros _ _ k1 k2 HK. exact (ks_possible HK).
  - intros _ _ k1 k2 HK. exact (ks_required HK).
  - intros _ _ k1 k2 HK. exact (ks_number HK).
  - intros _ _ k1 k2 HK. exact (ks_mark HK).
  - intros c1 c2 k1 k2 HK HC EP. exact (key_far_brk c1 c2 k1 k2 HK HC EP).
  - intros c1 c2 p r n1 n2. apply KS_here.
  - intros _ _. apply KS_dead.
  - intros _ _ k1 k2. exact (KS_kill d k1 k2).
  - intros s1 s2 H. exact (sh_sks H).
  - intros s1 s2 H. exact (sh_tp H).
  - intros s1 s2 H. exact (SH_adj_eqb H).
  - intros l1 l2 s1 s2. apply SH_set_sks.
  - intros n1 n2 s1 s2. apply SH_set_tp.
  - intros n s1 s2. apply SH_set_fl.
  - intros s1 s2 H _. apply SH_nb1_lock. exact (SH_flow_open d s1 s2 sk_blank sk_blank H (KS_dead d _ _ _ _ _ _)).
  - intros s1 s2 H. apply SH_set_mark; [exact H|]. apply mark_step_eol. exact (sh_mark H).
Qed.

Theorem fetch_stream_start_ok : shf_fetch_stream_start d.
Proof. exact (ScanLockFetch.fetch_stream_start_ok shf_klock). Qed.
Theorem fetch_stream_end_ok : shf_fetch_stream_end d.
Proof. exact (ScanLockFetch.fetch_stream_end_ok shf_klock). Qed.
Theorem fetch_directive_ok : shf_fetch_directive d.
Proof. exact (ScanLockFetch.fetch_directive_ok shf_klock H_dir). Qed.
Theorem fetch_tag_ok : shf_fetch_tag d.
Proof. exact (ScanLockFetch.fetch_tag_ok shf_klock H_tag). Qed.
Theorem fetch_anchor_ok : shf_fetch_anchor d.
Proof. exact (ScanLockFetch.fetch_anchor_ok shf_klock). Qed.
Theorem fetch_block_scalar_ok : shf_fetch_block_scalar d.
Proof. exact (ScanLockFetch.fetch_block_scalar_ok shf_klock H_block). Qed.
Theorem fetch_flow_scalar_ok : shf_fetch_flow_scalar d.
Proof. exact (ScanLockFetch.fetch_flow_scalar_ok shf_klock H_flow). Qed.
Theorem fetch_plain_scalar_ok : shf_fetch_plain_scalar d.
Proof. exact (ScanLockFetch.fetch_plain_scalar_ok shf_klock H_plain). Qed.
Theorem fetch_flow_collection_start_ok : shf_fetch_flow_collection_start d.
Proof. exact (ScanLockFetch.fetch_flow_collection_start_ok shf_klock). Qed.
Theorem fetch_flow_collection_end_ok : shf_fetch_flow_collection_end d.
Proof. exact (ScanLockFetch.fetch_flow_collection_end_ok shf_klock). Qed.
Theorem fetch_flow_entry_ok : shf_fetch_flow_entry d.
Proof. exact (ScanLockFetch.fetch_flow_entry_ok shf_klock). Qed.
Theorem fetch_block_entry_ok : shf_fetch_block_entry d.
Proof. exact (ScanLockFetch.fetch_block_entry_ok shf_klock). Qed.
Theorem fetch_document_indicator_ok : shf_fetch_document_indicator d.
Proof. exact (ScanLockFetch.fetch_document_indicator_ok shf_klock). Qed.
Theorem fetch_key_ok : shf_fetch_key d.
Proof. exact (ScanLockFetch.fetch_key_ok shf_klock). Qed.
Theorem fetch_value_ok : shf_fetch_value d.
Proof. exact (ScanLockFetch.fetch_value_ok shf_klock). Qed.
Theorem fetch_flow_value_ok : shf_fetch_flow_value d.
Proof.
  intros F1 F2 s1 s2 H N0 HFL. apply (ScanLockFetch.fetch_flow_value_ok shf_klock F1 F2 s1 s2 H N0).
  apply (SH_adj_eqb H). apply N.ltb_lt in HFL. lia.
Qed.

(* The step after StreamStart, from ANY two states (not necessarily related) whose leading skip_to_next_token runs -
   possibly with different fuels - end in related states: this is what is used at a document boundary, where side 2
   has to cross the rest of the marker line first (ScanShiftTop.v). *)
Theorem fetch_next_token_gen F1 F2 (s1 s2 : bst) :
  sc_stream_start s1 = true -> sc_stream_start s2 = true ->
  bwp (skip_to_next_token sops F1) (skip_to_next_token sops F2) (bpost_al d eq) (bump 1 s1) (bump 1 s2) ->
  bwp (fetch_next_token sops F1) (fetch_next_token sops F2) (bpost d eq) s1 s2.
Proof. exact (ScanLockFetch.fetch_next_token_gen shf_klock H_dir H_tag H_flow H_plain H_block F1 F2 s1 s2). Qed.

Theorem fetch_next_token_ok : shf_fetch_next_token d.
Proof. exact (ScanLockFetch.fetch_next_token_ok shf_klock H_dir H_tag H_flow H_plain H_block). Qed.
Theorem fetch_more_tokens_ok : shf_fetch_more_tokens d.
Proof. exact (ScanLockFetch.fetch_more_tokens_ok shf_klock H_dir H_tag H_flow H_plain H_block). Qed.
Theorem next_token_ok : shf_next_token d.
Proof. exact (ScanLockFetch.next_token_ok shf_klock H_dir H_tag H_flow H_plain H_block). Qed.
Theorem scan_all_ok : shf_scan_all d.
Proof. exact (ScanLockFetch.scan_all_ok shf_klock H_dir H_tag H_flow H_plain H_block). Qed.

End ShiftFetch.

Print Assumptions fetch_stream_start_ok.
Print Assumptions fetch_stream_end_ok.
Print Assumptions fetch_directive_ok.
Print Assumptions fetch_tag_ok.
Print Assumptions fetch_anchor_ok.
Print Assumptions fetch_flow_collection_start_ok.
Print Assumptions fetch_flow_collection_end_ok.
Print Assumptions fetch_flow_entry_ok.
Print Assumptions fetch_block_entry_ok.
Print Assumptions fetch_document_indicator_ok.
Print Assumptions fetch_block_scalar_ok.
Print Assumptions fetch_flow_scalar_ok.
Print Assumptions fetch_plain_scalar_ok.
Print Assumptions fetch_key_ok.
Print Assumptions fetch_value_ok.
Print Assumptions fetch_flow_value_ok.
Print Assumptions fetch_next_token_gen.
Print Assumptions fetch_next_token_ok.
Print Assumptions fetch_more_tokens_ok.
Print Assumptions next_token_ok.
Print Assumptions scan_all_ok.
