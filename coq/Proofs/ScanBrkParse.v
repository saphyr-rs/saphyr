(* C14, parser / pipeline level: the line-break style does not change the parse.

   The parser model (Parser.v) never looks inside a marker: markers are only copied from token spans into event
   spans, into error values, and into the state [SFlowSequenceEntryMappingEnd m].  So two parsers over token lists
   that differ only in the character INDEX of their markers ([TR] of ScanBrk.v) run in lockstep.

   Method: ERASURE.  [em] forgets the index of a marker; it is lifted to spans, tokens, parser states, parsers, events
   and results.  Every function of the parser COMMUTES with the erasure ([rc e (f p) (f (epa p))]: ParserMap.v proves
   it for any map on markers, and the maps defined here are its maps at this [em]), and two values are related
   ([MR] / [SPR] / [TR] / [STR] / [PR] / [EVR]) iff their erasures are equal.  Hence [state_machine_brk], and by
   induction on the two fuels [parse_all_brk] (any two fuels; related scanner ends [ER]).

   [parse_all_brk_ext] is the variant for a scanner run that broke off (SFuel / SPanic) on one side: the other side
   may hold MORE tokens (the parser reads its tokens front to back: ScanRelTop.state_machine_ext). *)
From Coq Require Import List NArith Bool Arith Lia.
Import ListNotations.
Require Import Parser SBase SPrim SDir SScalar SFetch Pipe ScanBrk ParserMap.
Require ScanRelTop.
Local Open Scope nat_scope.

Notation pend_bad := ScanRelTop.pend_bad.
Notation se_bad := ScanRelTop.se_bad.
Notation ext := ScanRelTop.ext.

(* 1. The relations *)
(* events with their spans: the same event (text, style, anchor id, tag), spans with the same lines and columns *)
Definition EVR (a b : event * span) : Prop := fst a = fst b /\ SPR (snd a) (snd b).

(* parser states: equal, up to the marker remembered by SFlowSequenceEntryMappingEnd *)
Inductive STR : pstate -> pstate -> Prop :=
| STR_eq s : STR s s
| STR_end m1 m2 : MR m1 m2 -> STR (SFlowSequenceEntryMappingEnd m1) (SFlowSequenceEntryMappingEnd m2).

Record PR (p1 p2 : parser) : Prop := {
  pr_toks : Forall2 TR (p_toks p1) (p_toks p2);
  pr_token : OTR (p_token p1) (p_token p2);
  pr_states : Forall2 STR (p_states p1) (p_states p2);
  pr_state : STR (p_state p1) (p_state p2);
  pr_anchors : p_anchors p1 = p_anchors p2;
  pr_anchor_id : p_anchor_id p1 = p_anchor_id p2;
  pr_tags : p_tags p1 = p_tags p2;
  pr_keep_tags : p_keep_tags p1 = p_keep_tags p2 }.

(* results of one step of the state machine *)
Definition SMR (r1 r2 : Parser.res ((event * span) * parser)) : Prop :=
  match r1, r2 with
  | Parser.Ok (ev1, q1), Parser.Ok (ev2, q2) => EVR ev1 ev2 /\ PR q1 q2
  | Parser.Err PErrScan, Parser.Err PErrScan => True
  | Parser.Err (PErr a m1), Parser.Err (PErr b m2) => a = b /\ MR m1 m2
  | Parser.Panic a, Parser.Panic b => a = b
  | _, _ => False
  end.

(* how two pipelines end (both properly) *)
Definition PER (e1 e2 : pend) : Prop :=
  match e1, e2 with
  | PDone, PDone => True
  | PScanErr a m1, PScanErr b m2 => a = b /\ MR m1 m2
  | PParseErr a m1, PParseErr b m2 => a = b /\ MR m1 m2
  | _, _ => False
  end.

(* 2. Erasure of the character index *)
Definition em (m : marker) : marker := {| m_index := 0; m_line := m_line m; m_col := m_col m |}.
Definition esp (s : span) : span := {| sp_start := em (sp_start s); sp_end := em (sp_end s) |}.
Definition etk (t : token) : token := (esp (fst t), snd t).
Definition est (s : pstate) : pstate :=
  match s with SFlowSequenceEntryMappingEnd m => SFlowSequenceEntryMappingEnd (em m) | s => s end.
Definition epa (p : parser) : parser :=
  {| p_toks := map etk (p_toks p); p_token := option_map etk (p_token p);
     p_states := map est (p_states p); p_state := est (p_state p);
     p_anchors := p_anchors p; p_anchor_id := p_anchor_id p; p_tags := p_tags p; p_keep_tags := p_keep_tags p |}.
Definition eev (v : event * span) : event * span := (fst v, esp (snd v)).
(* on the values the parser functions return *)
Definition ept (v : token * parser) : token * parser := (etk (fst v), epa (snd v)).
Definition eep (v : (event * span) * parser) : (event * span) * parser := (eev (fst v), epa (snd v)).
Definition e3 (v : N * option tag * parser) : N * option tag * parser := (fst v, epa (snd v)).
Definition mres {A B} (f : A -> B) (r : Parser.res A) : Parser.res B :=
  match r with
  | Parser.Ok v => Parser.Ok (f v)
  | Parser.Err PErrScan => Parser.Err PErrScan
  | Parser.Err (PErr s m) => Parser.Err (PErr s (em m))
  | Parser.Panic n => Parser.Panic n
  end.

(* related = equal after erasure *)
Lemma MR_em m1 m2 : MR m1 m2 <-> em m1 = em m2.
Proof.
  destruct m1 as [i1 l1 c1], m2 as [i2 l2 c2]. unfold MR, em. cbn [m_line m_col]. split.
  - intros [-> ->]. reflexivity.
  - intros E. inversion E. auto.
Qed.
Lemma SPR_esp a b : SPR a b <-> esp a = esp b.
Proof.
  destruct a as [a1 a2], b as [b1 b2]. unfold SPR, esp. cbn [sp_start sp_end]. rewrite !MR_em. split.
  - intros [-> ->]. reflexivity.
  - intros E. split; congruence.
Qed.
Lemma TR_etk t1 t2 : TR t1 t2 <-> etk t1 = etk t2.
Proof.
  destruct t1 as [s1 k1], t2 as [s2 k2]. unfold TR, etk. cbn [fst snd]. rewrite SPR_esp. split.
  - intros [-> ->]. reflexivity.
  - intros E. split; congruence.
Qed.
Lemma OTR_etk o1 o2 : OTR o1 o2 <-> option_map etk o1 = option_map etk o2.
Proof.
  destruct o1 as [t1|], o2 as [t2|]; cbn [OTR option_map]; try (split; [contradiction|discriminate]).
  - rewrite TR_etk. split; [intros ->; reflexivity|intros E; congruence].
  - split; auto.
Qed.
Lemma STR_est s1 s2 : STR s1 s2 <-> est s1 = est s2.
Proof.
  split.
  - intros [s|m1 m2 H]; [reflexivity|]. cbn [est]. apply MR_em in H. rewrite H. reflexivity.
  - destruct s1; cbn [est]; intros E; destruct s2; cbn [est] in E; try discriminate E; try apply STR_eq.
    apply STR_end. apply MR_em. congruence.
Qed.
Lemma F2_map {A} (R : A -> A -> Prop) (f : A -> A) : (forall a b, R a b <-> f a = f b) ->
  forall l1 l2, Forall2 R l1 l2 <-> map f l1 = map f l2.
Proof.
  intros HR l1. induction l1 as [|a l1 IH]; intros l2; destruct l2 as [|b l2]; cbn [map]; split; intros H;
    try reflexivity; try constructor; try discriminate H; try solve [inversion H].
  - inversion H; subst. f_equal; [apply HR; assumption|apply IH; assumption].
  - inversion H. apply HR. assumption.
  - inversion H. apply IH. assumption.
Qed.
Lemma EVR_eev a b : EVR a b <-> eev a = eev b.
Proof.
  destruct a as [e1 s1], b as [e2 s2]. unfold EVR, eev. cbn [fst snd]. rewrite SPR_esp. split.
  - intros [-> ->]. reflexivity.
  - intros E. split; congruence.
Qed.
Lemma PR_epa p1 p2 : PR p1 p2 <-> epa p1 = epa p2.
Proof.
  split.
  - intros [H1 H2 H3 H4 H5 H6 H7 H8]. unfold epa.
    apply (F2_map TR etk TR_etk) in H1. apply OTR_etk in H2. apply (F2_map STR est STR_est) in H3. apply STR_est in H4.
    rewrite H1, H2, H3, H4, H5, H6, H7, H8. reflexivity.
  - unfold epa. intros E. inversion E. constructor; try assumption.
    + apply (F2_map TR etk TR_etk). assumption.
    + apply OTR_etk. assumption.
    + apply (F2_map STR est STR_est). assumption.
    + apply STR_est. assumption.
Qed.

(* the relations are equivalences (only symmetry and reflexivity are used below) *)
Lemma MR_sym a b : MR a b -> MR b a. Proof. rewrite !MR_em. auto. Qed.
Lemma EVR_sym a b : EVR a b -> EVR b a. Proof. rewrite !EVR_eev. auto. Qed.
Lemma PR_sym a b : PR a b -> PR b a. Proof. rewrite !PR_epa. auto. Qed.
Lemma PR_refl a : PR a a. Proof. apply PR_epa. reflexivity. Qed.
Lemma F2_sym {A} (R : A -> A -> Prop) : (forall a b, R a b -> R b a) -> forall l1 l2, Forall2 R l1 l2 -> Forall2 R l2 l1.
Proof. intros HR l1 l2 H. induction H; constructor; auto. Qed.
Lemma PER_sym a b : PER a b -> PER b a.
Proof. destruct a, b; cbn [PER]; auto; intros [-> H]; split; auto using MR_sym. Qed.
Lemma F2_rev {A B} (R : A -> B -> Prop) l1 l2 : Forall2 R l1 l2 -> Forall2 R (rev l1) (rev l2).
Proof. induction 1; cbn [rev]; [constructor|]. apply Forall2_app; [assumption|]. constructor; [assumption|constructor]. Qed.

(* 3. Every parser function commutes with the erasure *)
Definition rc {A B} (f : A -> B) (r : Parser.res A) (r' : Parser.res B) : Prop := r' = mres f r.

Lemma node_props_comm p t : rc e3 (node_props p t) (node_props (epa p) (etk t)).
Proof. exact (node_props_map em p t). Qed.
Lemma node_content_comm p aid tg b i : rc eep (node_content p aid tg b i) (node_content (epa p) aid tg b i).
Proof. exact (node_content_map em p aid tg b i). Qed.
Lemma process_directives_call p vs tags :
  rc epa (process_directives (S (S (length (p_toks p)))) p vs tags)
         (process_directives (S (S (length (p_toks (epa p))))) (epa p) vs tags).
Proof. exact (process_directives_call_map em p vs tags). Qed.
Lemma skip_document_ends_call p :
  rc epa (skip_document_ends (S (S (length (p_toks p)))) p)
         (skip_document_ends (S (S (length (p_toks (epa p))))) (epa p)).
Proof. exact (skip_document_ends_call_map em p). Qed.
Lemma explicit_document_start_comm p : rc eep (explicit_document_start p) (explicit_document_start (epa p)).
Proof. exact (explicit_document_start_map em p). Qed.

Theorem state_machine_comm p : rc eep (state_machine p) (state_machine (epa p)).
Proof. exact (state_machine_map em p). Qed.

(* 4. One step of the state machine on related parsers *)
(* a function that commutes with the erasure takes related parsers to results with the same erasure *)
Lemma comm_PR {A} (f : parser -> Parser.res A) (e : A -> A) p1 p2 :
  (forall p, f (epa p) = mres e (f p)) -> PR p1 p2 -> mres e (f p1) = mres e (f p2).
Proof. intros C H. apply PR_epa in H. rewrite <- !C, H. reflexivity. Qed.

Lemma mres_eep_SMR r1 r2 : mres eep r1 = mres eep r2 -> SMR r1 r2.
Proof.
  destruct r1 as [[ev1 q1]|[|a m1]|n1], r2 as [[ev2 q2]|[|b m2]|n2]; intros E; unfold eep in E; cbn [mres SMR fst snd] in *;
    try discriminate E; auto.
  - split; [apply EVR_eev|apply PR_epa]; congruence.
  - split; [|apply MR_em]; congruence.
  - congruence.
Qed.

Theorem state_machine_brk p1 p2 : PR p1 p2 -> SMR (state_machine p1) (state_machine p2).
Proof. intros H. apply mres_eep_SMR. exact (comm_PR state_machine eep p1 p2 (state_machine_map em) H). Qed.

(* the same for the node parser and two auxiliaries *)
Theorem parse_node_brk p1 p2 b i : PR p1 p2 -> SMR (parse_node p1 b i) (parse_node p2 b i).
Proof.
  intros H. apply mres_eep_SMR.
  exact (comm_PR (fun p => parse_node p b i) eep p1 p2 (fun p => parse_node_map em p b i) H).
Qed.
(* results of the auxiliary functions *)
Definition RR {A} (R : A -> A -> Prop) (r1 r2 : Parser.res A) : Prop :=
  match r1, r2 with
  | Parser.Ok a, Parser.Ok b => R a b
  | Parser.Err PErrScan, Parser.Err PErrScan => True
  | Parser.Err (PErr a k1), Parser.Err (PErr b k2) => a = b /\ MR k1 k2
  | Parser.Panic a, Parser.Panic b => a = b
  | _, _ => False
  end.
Lemma mres_RR {A} (e : A -> A) (R : A -> A -> Prop) r1 r2 :
  (forall a b, e a = e b -> R a b) -> mres e r1 = mres e r2 -> RR R r1 r2.
Proof.
  intros HR. destruct r1 as [v1|[|a m1]|n1], r2 as [v2|[|b m2]|n2]; intros E; cbn [mres RR] in *;
    try discriminate E; auto.
  - apply HR. congruence.
  - split; [|apply MR_em]; congruence.
  - congruence.
Qed.
Theorem resolve_tag_brk p1 p2 m1 m2 h s : PR p1 p2 -> MR m1 m2 ->
  RR eq (resolve_tag p1 m1 h s) (resolve_tag p2 m2 h s).
Proof.
  intros H HM. apply PR_epa in H. apply MR_em in HM. apply (mres_RR (fun v : tag => v)); [auto|].
  transitivity (resolve_tag (epa p1) (em m1) h s); [symmetry; exact (resolve_tag_map em p1 m1 h s)|].
  rewrite H, HM. exact (resolve_tag_map em p2 m2 h s).
Qed.
Theorem process_directives_brk f p1 p2 vs tags : PR p1 p2 ->
  RR PR (process_directives f p1 vs tags) (process_directives f p2 vs tags).
Proof.
  intros H. apply (mres_RR epa); [intros a b; apply PR_epa|].
  exact (comm_PR (fun p => process_directives f p vs tags) epa p1 p2
                 (fun p => process_directives_map em f p vs tags) H).
Qed.

(* 5. The whole parser run *)
Definition is_end (s : pstate) : bool := match s with SEnd => true | _ => false end.
Lemma STR_is_end s1 s2 : STR s1 s2 -> is_end s1 = is_end s2.
Proof. intros [s|m1 m2 _]; reflexivity. Qed.

Definition pa_step (K : nat) (p : parser) (se : scan_end) (acc : list (event * span)) :=
  match state_machine p with
  | Parser.Ok (ev, p') => parse_all K p' se (ev :: acc)
  | Parser.Err PErrScan =>
      (rev acc, match se with
                | SError s m => PScanErr s m
                | SPanic n => PPanic n
                | SFuel => PFuel
                | SEnded => PScanErr 0 {| m_index := 0; m_line := 0; m_col := 0 |}
                end)
  | Parser.Err (PErr s m) => (rev acc, PParseErr s m)
  | Parser.Panic n => (rev acc, PPanic n)
  end.
Lemma parse_all_S K p se acc :
  parse_all (S K) p se acc = if is_end (p_state p) then (rev acc, PDone) else pa_step K p se acc.
Proof. cbn [parse_all]. unfold pa_step. destruct (p_state p); reflexivity. Qed.

Lemma ext_nil p : ext [] p = p.
Proof. destruct p as [a b c d e f g h]. unfold ScanRelTop.ext, set_tok. cbn [p_toks p_token p_states p_state p_anchors p_anchor_id p_tags p_keep_tags]. rewrite app_nil_r. reflexivity. Qed.

(* what the theorems below conclude *)
Definition run_rel (r1 r2 : list (event * span) * pend) : Prop :=
  pend_bad (snd r1) \/ pend_bad (snd r2) \/ (Forall2 EVR (fst r1) (fst r2) /\ PER (snd r1) (snd r2)).

(* GENERAL FORM: side 2 may hold more tokens [x] than side 1 - either it does not ([x = []]) and the scanner ends are
   related, or side 1's scanner run broke off *)
Lemma parse_all_brk_gen x : forall K1 K2 p1 p2 e1 e2 acc1 acc2,
  PR p1 p2 -> Forall2 EVR acc1 acc2 -> (x = [] /\ ER e1 e2) \/ se_bad e1 ->
  run_rel (parse_all K1 p1 e1 acc1) (parse_all K2 (ext x p2) e2 acc2).
Proof.
  induction K1 as [|K1 IH]; intros K2 p1 p2 e1 e2 acc1 acc2 HP HA HE; [left; exact I|].
  destruct K2 as [|K2]; [right; left; exact I|].
  rewrite !parse_all_S. rewrite ScanRelTop.p_state_ext. rewrite <- (STR_is_end _ _ (pr_state _ _ HP)).
  destruct (is_end (p_state p1)).
  { right. right. cbn [fst snd PER]. split; [apply F2_rev; exact HA|exact I]. }
  unfold pa_step.
  pose proof (state_machine_brk p1 p2 HP) as HB.
  pose proof (ScanRelTop.state_machine_ext x p2) as HS.
  destruct (state_machine p1) as [[ev1 q1]|[|a m1]|n1]; destruct (state_machine p2) as [[ev2 q2]|[|b m2]|n2] eqn:E2;
    cbn [SMR] in HB; try contradiction; cbn [ScanRelTop.rsimG] in HS.
  - rewrite HS. unfold ScanRelTop.pe. cbn [fst snd]. destruct HB as [HV HQ].
    apply IH; [exact HQ|constructor; assumption|exact HE].
  - destruct HE as [[-> HE]|HE].
    + rewrite ext_nil, E2.
      destruct e1 as [|a k1|n1|], e2 as [|b k2|n2|]; cbn [ER] in HE; try contradiction;
        try (left; exact I); try (right; left; exact I);
        right; right; cbn [fst snd PER]; (split; [apply F2_rev; exact HA|]).
      * split; [reflexivity|apply MR_refl].
      * exact HE.
    + left. destruct e1; cbn in HE; try contradiction; exact I.
  - rewrite HS. right. right. cbn [fst snd PER]. split; [apply F2_rev; exact HA|exact HB].
  - left. exact I.
Qed.

(* THE PARSER RUN: related parsers, related scanner ends, ANY two fuels *)
Theorem parse_all_brk K1 K2 p1 p2 e1 e2 acc1 acc2 :
  PR p1 p2 -> ER e1 e2 -> Forall2 EVR acc1 acc2 ->
  run_rel (parse_all K1 p1 e1 acc1) (parse_all K2 p2 e2 acc2).
Proof.
  intros HP HE HA. rewrite <- (ext_nil p2). apply parse_all_brk_gen; auto.
Qed.

(* side 1's scanner run broke off, side 2 holds more tokens *)
Theorem parse_all_brk_ext_r x K1 K2 p1 p2 e1 e2 acc1 acc2 :
  PR p1 p2 -> se_bad e1 -> Forall2 EVR acc1 acc2 ->
  run_rel (parse_all K1 p1 e1 acc1) (parse_all K2 (ext x p2) e2 acc2).
Proof. intros HP HE HA. apply parse_all_brk_gen; auto. Qed.

Lemma run_rel_sym r1 r2 : run_rel r1 r2 -> run_rel r2 r1.
Proof.
  intros [H|[H|[H1 H2]]]; [right; left; exact H|left; exact H|].
  right. right. split; [apply (F2_sym EVR EVR_sym); exact H1|apply PER_sym; exact H2].
Qed.
(* side 2's scanner run broke off, side 1 holds more tokens *)
Theorem parse_all_brk_ext_l x K1 K2 p1 p2 e1 e2 acc1 acc2 :
  PR p1 p2 -> se_bad e2 -> Forall2 EVR acc1 acc2 ->
  run_rel (parse_all K1 (ext x p1) e1 acc1) (parse_all K2 p2 e2 acc2).
Proof.
  intros HP HE HA. apply run_rel_sym. apply parse_all_brk_ext_r; [apply PR_sym; exact HP|exact HE|].
  apply (F2_sym EVR EVR_sym). exact HA.
Qed.

(* the "both ends proper" reading of [run_rel] *)
Definition pend_proper (e : pend) : Prop := match e with PPanic _ | PFuel => False | _ => True end.
Lemma run_rel_proper r1 r2 : run_rel r1 r2 -> pend_proper (snd r1) -> pend_proper (snd r2) ->
  Forall2 EVR (fst r1) (fst r2) /\ PER (snd r1) (snd r2).
Proof.
  intros [H|[H|H]] P1 P2; [exfalso|exfalso|exact H].
  - destruct (snd r1); cbn in *; contradiction.
  - destruct (snd r2); cbn in *; contradiction.
Qed.

Print Assumptions state_machine_comm.
Print Assumptions state_machine_brk.
Print Assumptions parse_node_brk.
Print Assumptions resolve_tag_brk.
Print Assumptions process_directives_brk.
Print Assumptions parse_all_brk_gen.
Print Assumptions parse_all_brk.
Print Assumptions parse_all_brk_ext_r.
Print Assumptions parse_all_brk_ext_l.
