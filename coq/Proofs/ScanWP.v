(* Weakest-precondition calculus for the scanner monad over the BUFFERED input of any capacity >= 8, and the
   contracts ("specs") of the scanner's entry points used to prove that the whole scanner never panics:
   no lookahead-contract violation (peek beyond the buffer, lookahead beyond the capacity, skip beyond the buffer,
   push into a full buffer) and none of the skeleton panics (empty simple-key / indent stacks, token insertion
   out of range, token-number underflow).
   [wp], [keeps], [SInv], ... are the definitions of ScanSkel.v stated at [bufin], convertible with them; what does
   not depend on the input is proved there. *)
From Coq Require Import List NArith ZArith Bool Arith Lia.
Import ListNotations.
Require Import Parser SBase SPrim SDir SScalar SFetch SBuf.
Require ScanSkel ScanFrame.
Local Open Scope nat_scope.

(* [ScanFrame.frame] fixes every field that [keeps] fixes, and more *)
Lemma frame_keeps {I} (s s' : sc I) : ScanFrame.frame s s' -> ScanSkel.keeps s s'.
Proof.
  intros (Ks & Kf & Ki & Kt & Kp & Kb & Ke & _ & _ & _ & Kn). unfold ScanSkel.keeps. repeat split; try assumption.
  destruct Kn as [Kn|Kn]; [left; injection Kn; auto|right; exact Kn].
Qed.

Lemma take_pad_length n s : length (fst (take_pad n s)) = n.
Proof.
  revert s; induction n as [|n IH]; intros s; cbn [take_pad]; [reflexivity|].
  destruct s as [|c s]; [specialize (IH [])|specialize (IH s)]; destruct (take_pad n _); cbn in *; lia.
Qed.

Section WP.
Variable cap : nat.
Hypothesis cap_ge : 8 <= cap.
Definition bops := buf_ops cap.
Notation st := (sc bufin).
Notation M := (@M bufin).

(* buffered length *)
Definition bl (s : st) : nat := length (b_buf (sc_in s)).

(* never Panic; an error or exhausted fuel ends the run and is not a panic *)
Definition wp {A} (m : M A) (Q : A -> st -> Prop) (s : st) : Prop :=
  match m s with
  | Ok (a, s') => Q a s'
  | Err _ _ => True
  | OutOfFuel => True
  | Panic _ => False
  end.

Lemma wp_ret {A} (a : A) (Q : A -> st -> Prop) s : Q a s -> wp (ret a) Q s.
Proof. exact (ScanSkel.wp_ret a Q s). Qed.
Lemma wp_bind {A B} (m : M A) (f : A -> M B) (Q : B -> st -> Prop) s :
  wp m (fun a s' => wp (f a) Q s') s -> wp (bind m f) Q s.
Proof. exact (ScanSkel.wp_bind m f Q s). Qed.
Lemma wp_mono {A} (m : M A) (Q Q' : A -> st -> Prop) s :
  wp m Q s -> (forall a s', Q a s' -> Q' a s') -> wp m Q' s.
Proof. exact (ScanSkel.wp_mono m Q Q' s). Qed.
Lemma wp_fail {A} site mk (Q : A -> st -> Prop) s : wp (@fail bufin A site mk) Q s.
Proof. exact I. Qed.
Lemma wp_oof {A} (Q : A -> st -> Prop) s : wp (@oof bufin A) Q s.
Proof. exact I. Qed.
Lemma wp_get (Q : st -> st -> Prop) s : Q s s -> wp get Q s.
Proof. auto. Qed.
Lemma wp_gets {A} (f : st -> A) (Q : A -> st -> Prop) s : Q (f s) s -> wp (gets f) Q s.
Proof. auto. Qed.
Lemma wp_put s0 (Q : unit -> st -> Prop) s : Q tt s0 -> wp (put s0) Q s.
Proof. auto. Qed.
Lemma wp_modify f (Q : unit -> st -> Prop) s : Q tt (f s) -> wp (modify f) Q s.
Proof. auto. Qed.
(* a panic site is only acceptable where it is unreachable *)
Lemma wp_panic_absurd {A} site (Q : A -> st -> Prop) s : False -> wp (@panic bufin A site) Q s.
Proof. tauto. Qed.
(* To pass between [wp] and the judgment of ScanSkel.v rewrite with this equation: a conversion check on
   [wp m Q s] for a concrete scanner function [m] would run [m]. *)
Lemma wp_skel : @wp = @ScanSkel.wp bufin.
Proof. reflexivity. Qed.

(* input primitives: only the buffered length matters *)
(* all fields other than the input are untouched by an input operation *)
Definition same_but_input (s s' : st) : Prop := s' = set_in (sc_in s') s.

(* i-th buffered character (0 beyond the buffer) *)
Definition bnth (s : st) (i : nat) : chr := nth i (b_buf (sc_in s)) 0%N.

Lemma wp_look n (Q : unit -> st -> Prop) s :
  n <= cap ->
  (forall s', same_but_input s s' -> n <= bl s' -> bl s <= bl s' -> (forall i, i < bl s -> bnth s' i = bnth s i) -> Q tt s') ->
  wp (look bops n) Q s.
Proof.
  intros Hn HQ. unfold wp, look, bops. cbn [lookahead buf_ops].
  destruct (Nat.leb n (length (b_buf (sc_in s)))) eqn:E1.
  - apply HQ; unfold bl, same_but_input, bnth; cbn; [destruct s; reflexivity | apply Nat.leb_le in E1; lia | lia | reflexivity].
  - destruct (Nat.ltb cap n) eqn:E2; [apply Nat.ltb_lt in E2; lia|].
    pose proof (take_pad_length (n - length (b_buf (sc_in s))) (b_rest (sc_in s))) as HL.
    destruct (take_pad _ _) as [a r]. cbn [fst] in HL. apply Nat.leb_gt in E1.
    apply HQ; unfold bl, same_but_input, bnth; cbn;
      [reflexivity | rewrite app_length; lia | rewrite app_length; lia | intros i Hi; apply app_nth1; exact Hi].
Qed.

Lemma wp_peekn_val n (Q : chr -> st -> Prop) s : n < bl s -> Q (bnth s n) s -> wp (peekn bops n) Q s.
Proof.
  intros Hn HQ. unfold wp, peekn, bops. cbn [peek_nth buf_ops]. unfold bl in Hn.
  destruct (nth_error (b_buf (sc_in s)) n) eqn:E; [|apply nth_error_None in E; lia].
  unfold bnth in HQ. rewrite (nth_error_nth _ _ _ E) in HQ. exact HQ.
Qed.
Lemma wp_peekn n (Q : chr -> st -> Prop) s : n < bl s -> (forall c, Q c s) -> wp (peekn bops n) Q s.
Proof. intros Hn HQ. apply wp_peekn_val; auto. Qed.
Lemma wp_peek (Q : chr -> st -> Prop) s : 1 <= bl s -> (forall c, Q c s) -> wp (SPrim.peek bops) Q s.
Proof. intros H HQ. apply wp_peekn; [lia|exact HQ]. Qed.
Lemma wp_peek_val (Q : chr -> st -> Prop) s : 1 <= bl s -> Q (bnth s 0) s -> wp (SPrim.peek bops) Q s.
Proof. intros H HQ. apply wp_peekn_val; [lia|exact HQ]. Qed.

Lemma wp_look_ch (Q : chr -> st -> Prop) s :
  (forall c s', same_but_input s s' -> 1 <= bl s' -> bl s <= bl s' -> Q c s') -> wp (look_ch bops) Q s.
Proof.
  intros HQ. unfold look_ch. apply wp_bind. apply wp_look; [lia|]. intros s' Hs H1 H2 _.
  apply wp_peek; [exact H1|]. intros c. apply HQ; assumption.
Qed.

Lemma wp_look_ch_val (Q : chr -> st -> Prop) s :
  (forall s', same_but_input s s' -> 1 <= bl s' -> bl s <= bl s' -> (forall i, i < bl s -> bnth s' i = bnth s i) -> Q (bnth s' 0) s') ->
  wp (look_ch bops) Q s.
Proof.
  intros HQ. unfold look_ch. apply wp_bind. apply wp_look; [lia|]. intros s' Hs H1 H2 H3.
  apply wp_peek_val; [exact H1|]. apply HQ; assumption.
Qed.

Lemma wp_in_skip (Q : unit -> st -> Prop) s :
  (forall s', same_but_input s s' -> bl s' = bl s - 1 -> Q tt s') -> wp (in_skip bops) Q s.
Proof.
  intros HQ. unfold wp, in_skip, modify, bops. cbn [skip1 buf_ops]. apply HQ; unfold bl, same_but_input; cbn.
  - reflexivity.
  - destruct (b_buf (sc_in s)); cbn; lia.
Qed.

Lemma wp_in_skip_n n (Q : unit -> st -> Prop) s :
  n <= bl s -> (forall s', same_but_input s s' -> bl s' = bl s - n -> Q tt s') -> wp (in_skip_n bops n) Q s.
Proof.
  intros Hn HQ. unfold wp, in_skip_n, bops. cbn [skip_n buf_ops]. unfold bl in *.
  destruct (Nat.ltb _ n) eqn:E; [apply Nat.ltb_lt in E; lia|].
  apply HQ; unfold same_but_input; cbn; [reflexivity | rewrite skipn_length; reflexivity].
Qed.

(* raw_read_non_breakz pushes a break back into the buffer: only legal when there is room; the scanner calls it
   with an EMPTY buffer *)
Lemma wp_raw_read (Q : option chr -> st -> Prop) s :
  bl s = 0 -> (forall c s', same_but_input s s' -> bl s' <= 1 -> (c <> None -> bl s' = 0) -> Q c s') -> wp (raw_read bops) Q s.
Proof.
  intros H0 HQ. unfold wp, raw_read, bops. cbn [raw_read_non_breakz buf_ops]. unfold bl in *.
  destruct (b_rest (sc_in s)) as [|c r]; [apply HQ; unfold same_but_input; cbn; [destruct s; reflexivity|lia|congruence]|].
  destruct (is_breakz c).
  - destruct (Nat.leb cap (length (b_buf (sc_in s)))) eqn:E; [apply Nat.leb_le in E; lia|].
    apply HQ; unfold same_but_input; cbn; [reflexivity | rewrite app_length; cbn; lia | congruence].
  - apply HQ; unfold same_but_input; cbn; [reflexivity | lia | lia].
Qed.

Lemma wp_buf_is_empty (Q : bool -> st -> Prop) s : Q (Nat.eqb (bl s) 0) s -> wp (buf_is_empty bops) Q s.
Proof. intros H. exact H. Qed.

Lemma wp_assert_buflen n site (Q : unit -> st -> Prop) s : n <= bl s -> Q tt s -> wp (assert_buflen bops n site) Q s.
Proof.
  intros Hn HQ. unfold wp, assert_buflen, bops. cbn [buflen buf_ops]. unfold bl in Hn.
  destruct (Nat.ltb _ n) eqn:E; [apply Nat.ltb_lt in E; lia|exact HQ].
Qed.

(* the skeleton: what the character-level scanners must leave alone *)
Definition keeps (s s' : st) : Prop :=
  sc_sks s' = sc_sks s /\ sc_flow_level s' = sc_flow_level s /\ sc_tokens s' = sc_tokens s
  /\ sc_tokens_parsed s' = sc_tokens_parsed s /\ sc_stream_start s' = sc_stream_start s
  /\ sc_stream_end s' = sc_stream_end s /\ sc_ifms s' = sc_ifms s
  /\ ((sc_indent s' = sc_indent s /\ sc_indents s' = sc_indents s)
      \/ (sc_indent s', sc_indents s') = unroll_nb (sc_indents s) (sc_indent s)).

Lemma keeps_refl s : keeps s s.
Proof. exact (ScanSkel.keeps_refl s). Qed.
Lemma keeps_trans s1 s2 s3 : keeps s1 s2 -> keeps s2 s3 -> keeps s1 s3.
Proof. exact (ScanSkel.keeps_trans s1 s2 s3). Qed.
Lemma keeps_input s s' : same_but_input s s' -> keeps s s'.
Proof. exact (ScanSkel.keeps_input s s'). Qed.

(* The [keeps] half of a contract is not walked: every character-level scanner is a frame (Proofs/ScanFrame.v),
   so its postcondition may assume that the skeleton was left alone. *)
Lemma wp_keeps {A} (m : M A) (Q : A -> st -> Prop) s :
  ScanFrame.Fr m -> wp m (fun a s' => keeps s s' -> Q a s') s -> wp m Q s.
Proof.
  intros HF. unfold wp. destruct (m s) as [[a s']| | |] eqn:E; auto.
  intros H. exact (H (frame_keeps s s' (HF s a s' E))).
Qed.

(* the skeleton invariant *)
(* I2: the indent stack is strictly increasing towards the top and bottoms out at -1 *)
Fixpoint sorted_from (top : Z) (l : list indent_rec) : Prop :=
  match l with
  | [] => top = (-1)%Z
  | i :: r => (in_indent i < top)%Z /\ sorted_from (in_indent i) r
  end.
(* I3: a possible simple key points into (or just past) the token queue *)
Definition sk_in_range (s : st) (k : simple_key) : Prop :=
  sk_possible k = true ->
  (sc_tokens_parsed s <= sk_token_number k)%N
  /\ (sk_token_number k <= sc_tokens_parsed s + N.of_nat (length (sc_tokens s)))%N.

Definition SInv (s : st) : Prop :=
  (if sc_stream_start s then N.of_nat (length (sc_sks s)) = (sc_flow_level s + 1)%N
   else sc_sks s = [] /\ sc_flow_level s = 0%N)
  /\ sorted_from (sc_indent s) (sc_indents s)
  /\ Forall (sk_in_range s) (sc_sks s).

Lemma sorted_from_ge l : forall top, sorted_from top l -> (-1 <= top)%Z.
Proof using cap_ge. exact (ScanSkel.sorted_from_ge l). Qed.

(* ---------------- contracts of the entry points (proved in the ScanSafe*.v files) ----------------
   Convention: [F] is the fuel parameter of the model and arbitrary.  Every contract says: from a state satisfying
   the stated buffer precondition the function does not panic and, when it returns normally, it has left the
   skeleton alone ([keeps]) and re-established the stated buffer postcondition. *)
Definition post_keeps (s : st) (k : nat) {A} : A -> st -> Prop := fun _ s' => keeps s s' /\ k <= bl s'.
Lemma wp_post_keeps {A} (m : M A) k s :
  ScanFrame.Fr m -> wp m (fun _ s' => k <= bl s') s -> wp m (post_keeps s k) s.
Proof.
  intros HF H. apply (wp_keeps m _ s HF). eapply wp_mono; [exact H|]. intros a s' B K. split; [exact K|exact B].
Qed.

Definition spec_skip_to_next_token : Prop := forall F s, wp (skip_to_next_token bops F) (post_keeps s 1) s.
Definition spec_skip_ws_to_eol : Prop := forall F stb s, wp (skip_ws_to_eol bops F stb) (post_keeps s 1) s.
Definition spec_skip_yaml_whitespace : Prop := forall F s, wp (skip_yaml_whitespace bops F) (post_keeps s 1) s.
Definition spec_skip_linebreak : Prop := forall s, 2 <= bl s -> wp (skip_linebreak bops) (post_keeps s 0) s.
Definition spec_scan_directive : Prop := forall F s, 1 <= bl s -> wp (scan_directive bops F) (post_keeps s 0) s.
Definition spec_scan_tag : Prop := forall F s, wp (scan_tag bops F) (post_keeps s 0) s.
Definition spec_scan_anchor : Prop := forall F alias s, 1 <= bl s -> wp (scan_anchor bops F alias) (post_keeps s 0) s.
Definition spec_scan_flow_scalar : Prop := forall F single s, 1 <= bl s -> wp (scan_flow_scalar bops F single) (post_keeps s 0) s.
Definition spec_scan_plain_scalar : Prop := forall F s, wp (scan_plain_scalar bops F) (post_keeps s 0) s.
Definition spec_scan_block_scalar : Prop := forall F literal s, 1 <= bl s -> wp (scan_block_scalar bops F literal) (post_keeps s 0) s.

(* mark primitives *)
Lemma wp_skip_blank (Q : unit -> st -> Prop) s :
  (forall s', keeps s s' -> bl s' = bl s - 1 -> Q tt s') -> wp (skip_blank bops) Q s.
Proof.
  intros HQ. unfold skip_blank. apply wp_bind. apply wp_in_skip. intros s1 H1 B1.
  unfold adv_mark. apply wp_modify. apply HQ.
  - eapply keeps_trans; [apply keeps_input; exact H1|]. unfold keeps; cbn; repeat split; auto.
  - exact B1.
Qed.
Lemma wp_skip_non_blank (Q : unit -> st -> Prop) s :
  (forall s', keeps s s' -> bl s' = bl s - 1 -> Q tt s') -> wp (skip_non_blank bops) Q s.
Proof.
  intros HQ. unfold skip_non_blank. apply wp_bind. apply wp_in_skip. intros s1 H1 B1.
  apply wp_bind. unfold adv_mark. apply wp_modify. apply wp_modify. apply HQ.
  - eapply keeps_trans; [apply keeps_input; exact H1|]. unfold keeps; cbn; repeat split; auto.
  - exact B1.
Qed.
Lemma wp_skip_n_non_blank n (Q : unit -> st -> Prop) s :
  n <= bl s -> (forall s', keeps s s' -> bl s' = bl s - n -> Q tt s') -> wp (skip_n_non_blank bops n) Q s.
Proof.
  intros Hn HQ. unfold skip_n_non_blank. apply wp_bind. apply wp_in_skip_n; [exact Hn|]. intros s1 H1 B1.
  apply wp_bind. unfold adv_mark. apply wp_modify. apply wp_modify. apply HQ.
  - eapply keeps_trans; [apply keeps_input; exact H1|]. unfold keeps; cbn; repeat split; auto.
  - exact B1.
Qed.
Lemma wp_skip_nl (Q : unit -> st -> Prop) s :
  (forall s', keeps s s' -> bl s' = bl s - 1 -> Q tt s') -> wp (skip_nl bops) Q s.
Proof.
  intros HQ. unfold skip_nl. apply wp_bind. apply wp_in_skip. intros s1 H1 B1.
  apply wp_modify. apply HQ.
  - eapply keeps_trans; [apply keeps_input; exact H1|]. unfold keeps; cbn; repeat split; auto.
  - exact B1.
Qed.
Lemma wp_adv_mark n (Q : unit -> st -> Prop) s : (forall s', keeps s s' -> bl s' = bl s -> Q tt s') -> wp (adv_mark n) Q s.
Proof. intros HQ. unfold adv_mark. apply wp_modify. apply HQ; [unfold keeps; cbn; repeat split; auto|reflexivity]. Qed.
Lemma wp_mark (Q : marker -> st -> Prop) s : Q (sc_mark s) s -> wp mark Q s.
Proof. auto. Qed.

(* Input default methods (input.rs) *)
Lemma wp_next_char_is c (Q : bool -> st -> Prop) s : 1 <= bl s -> (forall r, Q r s) -> wp (next_char_is bops c) Q s.
Proof. intros H HQ. unfold next_char_is. apply wp_bind. apply wp_peek; [exact H|]. intros x. apply wp_ret, HQ. Qed.
Lemma wp_nth_char_is n c (Q : bool -> st -> Prop) s : n < bl s -> (forall r, Q r s) -> wp (nth_char_is bops n c) Q s.
Proof. intros H HQ. unfold nth_char_is. apply wp_bind. apply wp_peekn; [exact H|]. intros x. apply wp_ret, HQ. Qed.
Lemma wp_next_is p (Q : bool -> st -> Prop) s : 1 <= bl s -> (forall r, Q r s) -> wp (next_is bops p) Q s.
Proof. intros H HQ. unfold next_is. apply wp_bind. apply wp_peek; [exact H|]. intros x. apply wp_ret, HQ. Qed.
Lemma wp_next_2_are a b (Q : bool -> st -> Prop) s : 2 <= bl s -> (forall r, Q r s) -> wp (next_2_are bops a b) Q s.
Proof.
  intros H HQ. unfold next_2_are. apply wp_bind. apply wp_assert_buflen; [exact H|].
  apply wp_bind. apply wp_peek; [lia|]. intros x. apply wp_bind. apply wp_peekn; [lia|]. intros y. apply wp_ret, HQ.
Qed.
Lemma wp_next_3_are a b c (Q : bool -> st -> Prop) s : 3 <= bl s -> (forall r, Q r s) -> wp (next_3_are bops a b c) Q s.
Proof.
  intros H HQ. unfold next_3_are. apply wp_bind. apply wp_assert_buflen; [exact H|].
  apply wp_bind. apply wp_peek; [lia|]. intros x. apply wp_bind. apply wp_peekn; [lia|]. intros y.
  apply wp_bind. apply wp_peekn; [lia|]. intros z. apply wp_ret, HQ.
Qed.
Lemma wp_next_is_document_indicator (Q : bool -> st -> Prop) s : 4 <= bl s -> (forall r, Q r s) -> wp (next_is_document_indicator bops) Q s.
Proof.
  intros H HQ. unfold next_is_document_indicator. apply wp_bind. apply wp_assert_buflen; [exact H|].
  apply wp_bind. apply wp_peekn; [lia|]. intros c3. destruct (is_blank_or_breakz c3); [|apply wp_ret, HQ].
  apply wp_bind. apply wp_next_3_are; [lia|]. intros d. destruct d; [apply wp_ret, HQ|]. apply wp_next_3_are; [lia|exact HQ].
Qed.
Lemma wp_next_can_be_plain_scalar fl (Q : bool -> st -> Prop) s : 2 <= bl s -> (forall r, Q r s) -> wp (next_can_be_plain_scalar bops fl) Q s.
Proof.
  intros H HQ. unfold next_can_be_plain_scalar. apply wp_bind. apply wp_peekn; [lia|]. intros nc.
  apply wp_bind. apply wp_peek; [lia|]. intros c.
  destruct ((c =? 58)%N && (is_blank_or_breakz nc || fl && is_flow nc)); [apply wp_ret, HQ|].
  destruct (fl && is_flow c); apply wp_ret, HQ.
Qed.

(* line breaks: the scanner always has two characters buffered when it consumes a break *)
Lemma wp_skip_linebreak (Q : unit -> st -> Prop) s :
  2 <= bl s -> (forall s', keeps s s' -> bl s - 2 <= bl s' -> Q tt s') -> wp (skip_linebreak bops) Q s.
Proof.
  intros H HQ. unfold skip_linebreak. apply wp_bind. apply wp_next_2_are; [exact H|]. intros crlf. destruct crlf.
  - apply wp_bind. apply wp_skip_blank. intros s1 K1 B1. apply wp_skip_nl. intros s2 K2 B2.
    apply HQ; [eapply keeps_trans; eauto|lia].
  - apply wp_bind. apply wp_peek; [lia|]. intros c. destruct (is_break c).
    + apply wp_skip_nl. intros s1 K1 B1. apply HQ; [exact K1|lia].
    + apply wp_ret. apply HQ; [apply keeps_refl|lia].
Qed.
Lemma wp_skip_break (Q : unit -> st -> Prop) s :
  2 <= bl s -> is_break (bnth s 0) = true ->
  (forall s', keeps s s' -> bl s - 2 <= bl s' -> Q tt s') -> wp (skip_break bops) Q s.
Proof.
  intros H Hb HQ. unfold skip_break.
  apply wp_bind. apply wp_peek_val; [lia|]. apply wp_bind. apply wp_peekn; [lia|]. intros nc.
  rewrite Hb. apply wp_bind. apply wp_ret.
  apply wp_bind. destruct ((bnth s 0 =? 13)%N && (nc =? 10)%N).
  - apply wp_skip_blank. intros s1 K1 B1. apply wp_skip_nl. intros s2 K2 B2. apply HQ; [eapply keeps_trans; eauto|lia].
  - apply wp_ret. apply wp_skip_nl. intros s1 K1 B1. apply HQ; [exact K1|lia].
Qed.
End WP.

(* case analysis on the test of a conditional program *)
Ltac dif := match goal with |- wp (if ?b then _ else _) _ _ => destruct b end.
Ltac difE E := match goal with |- wp (if ?b then _ else _) _ _ => destruct b eqn:E end.
