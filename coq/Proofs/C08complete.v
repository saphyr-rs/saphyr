(* C08: completeness of the resolver model and the combined oracle theorem. *)
From Coq Require Import List NArith ZArith Bool Lia.
Import ListNotations.
Require Import Resolver CoreSchema CoreNumber ListKit ResolverProofs.
Open Scope Z_scope.
Arguments N.eqb : simpl never.

Lemma from_str_radix_range s r v : from_str_radix s r = Some v -> in_i64 v = true.
Proof.
  rewrite from_str_radix_eq. destruct (sign_split s) as [neg ds]. destruct (nonempty ds); [|discriminate].
  destruct (digits_val r ds 0) as [z|]; [|discriminate]. destruct (in_i64 _) eqn:E; [|discriminate].
  intros H. inversion H. subst. exact E.
Qed.

(* unsigned digit strings parse to their value *)
Lemma from_str_radix_unsigned d r v :
  nonempty d = true -> starts_signed d = false -> digits_val r d 0 = Some v -> in_i64 v = true ->
  from_str_radix_ns d r = Some v.
Proof. intros Hn Hs Hd Hr. rewrite from_str_radix_ns_eq, Hs, Hn, Hd, Hr. reflexivity. Qed.

(* a character class without the two signs *)
Lemma class_not_sign (p : chr -> bool) c :
  p 43%N = false -> p 45%N = false -> p c = true -> ch c 43 = false /\ ch c 45 = false.
Proof. intros H1 H2 H. split; apply N.eqb_neq; intros ->; congruence. Qed.
Lemma dig_not_sign c : is_dig c = true -> ch c 43 = false /\ ch c 45 = false.
Proof. exact (class_not_sign is_dig c eq_refl eq_refl). Qed.
Lemma class_not_signed (p : chr -> bool) d :
  p 43%N = false -> p 45%N = false -> nonempty d = true -> forallb p d = true -> starts_signed d = false.
Proof.
  intros H1 H2 Hn Hf. destruct d as [|c d]; [discriminate|]. cbn in Hf. apply andb_true_iff in Hf as [Hc _].
  cbn. destruct (class_not_sign p c H1 H2 Hc) as [-> ->]. reflexivity.
Qed.

(* a string whose first character is a digit, a sign or a dot is none of the literal words *)
Definition numeric_head (s : str) : bool :=
  match s with c :: _ => is_dig c || ch c 43 || ch c 45 || ch c 46 | [] => false end.
Lemma numeric_head_words s : numeric_head s = true ->
  inl s [s_tilde; s_null; s_NULL] = false /\ inl s [s_true] = false /\ inl s [s_false] = false.
Proof.
  intros H. repeat split; apply (inl_false (fun w => numeric_head w = true)); try exact H; repeat constructor; discriminate.
Qed.
Lemma numeric_head_digits d : nonempty d = true -> forallb is_dig d = true -> numeric_head d = true.
Proof.
  destruct d as [|c d]; [discriminate|]. intros _ H. cbn [forallb] in H. apply andb_true_iff in H as [Hc _].
  cbn [numeric_head]. rewrite Hc. reflexivity.
Qed.
Lemma numeric_head_sign s : numeric_head (snd (sign_split s)) = true -> numeric_head s = true.
Proof. destruct (sign_split_cases s) as [r|r|s' _]; intros E; [reflexivity|reflexivity|exact E]. Qed.

Lemma strip_prefix_head p s n : strip_prefix p s = Some n -> forall c, hd_error p = Some c -> hd_error s = Some c.
Proof.
  destruct p as [|a p]; [discriminate 2|]. destruct s as [|b s]; [discriminate|].
  cbn. destruct (N.eqb a b) eqn:E; [|discriminate]. apply N.eqb_eq in E. subst. intros _ c H; exact H.
Qed.

(* integers *)
Lemma parse_from_cow_unfold v :
  parse_from_cow v =
  match strip_prefix [48;120]%N v with
  | Some number => match from_str_radix_ns number 16 with Some i => SInt i | None => parse_tail v end
  | None =>
    match strip_prefix [48;111]%N v with
    | Some number => match from_str_radix_ns number 8 with Some i => SInt i | None => parse_tail v end
    | None =>
      match strip_prefix [43]%N v with
      | Some number => match from_str_radix_ns number 10 with Some i => SInt i | None => parse_tail v end
      | None => parse_tail v
      end
    end
  end.
Proof. unfold parse_from_cow. rewrite tbl_prefixes. reflexivity. Qed.

Lemma parse_tail_int v z : numeric_head v = true -> parse_i64 v = Some z -> parse_tail v = SInt z.
Proof.
  intros Hh Hp. unfold parse_tail. rewrite tbl_null, tbl_true, tbl_false.
  destruct (numeric_head_words v Hh) as (-> & -> & ->). rewrite Hp. reflexivity.
Qed.

Lemma dec_int_numeric_head s z : dec_int s = Some z -> numeric_head s = true.
Proof.
  unfold dec_int. intros H. apply numeric_head_sign. destruct (sign_split s) as [neg d].
  destruct (nonempty d && all_in is_dig d) eqn:E; [|discriminate]. apply andb_true_iff in E as [En Ea].
  exact (numeric_head_digits d En Ea).
Qed.

Lemma parse_i64_complete s z : dec_int s = Some z -> in_i64 z = true -> parse_i64 s = Some z.
Proof. intros Hd Hr. rewrite parse_i64_dec_int, Hd, Hr. reflexivity. Qed.

Theorem int_complete s z : core_int s = Some z -> in_i64 z = true -> parse_from_cow s = SInt z.
Proof.
  intros Hc Hr. rewrite parse_from_cow_unfold. unfold core_int in Hc.
  destruct (strip_prefix [48;120]%N s) as [d|] eqn:P1.
  { destruct (nonempty d && all_in is_hexd d) eqn:E; [|discriminate]. apply andb_true_iff in E as [En Ea].
    rewrite (from_str_radix_unsigned d 16 z En (class_not_signed is_hexd d eq_refl eq_refl En Ea) Hc Hr). reflexivity. }
  destruct (strip_prefix [48;111]%N s) as [d|] eqn:P2.
  { destruct (nonempty d && all_in is_oct d) eqn:E; [|discriminate]. apply andb_true_iff in E as [En Ea].
    rewrite (from_str_radix_unsigned d 8 z En (class_not_signed is_oct d eq_refl eq_refl En Ea) Hc Hr). reflexivity. }
  change (dec_int s = Some z) in Hc.
  destruct (strip_prefix [43]%N s) as [d|] eqn:P3.
  - (* "+digits": the prefix chain reads it *)
    apply strip_prefix_app in P3. subst s. apply dec_int_core in Hc. cbn [app] in Hc. rewrite core_int_plus in Hc.
    destruct (nonempty d && all_in is_dig d) eqn:E; [|discriminate]. apply andb_true_iff in E as [En Ea].
    destruct (digits_val 10 d 0) as [v|] eqn:D; [|discriminate]. inversion Hc; subst z.
    rewrite (from_str_radix_unsigned d 10 v En (class_not_signed is_dig d eq_refl eq_refl En Ea) D Hr). reflexivity.
  - (* "-digits", "digits": the tail does *)
    apply parse_tail_int; [exact (dec_int_numeric_head s z Hc)|exact (parse_i64_complete s z Hc Hr)].
Qed.

(* floats *)
Lemma dig_float_char c : is_dig c = true -> float_char c = true.
Proof. intros H. rewrite float_char_eq, H. reflexivity. Qed.
Lemma digs_float_char l : forallb is_dig l = true -> forallb float_char l = true.
Proof.
  induction l as [|c l IH]; [reflexivity|]. cbn [forallb]. intros H. apply andb_true_iff in H as [A B].
  rewrite (dig_float_char _ A), (IH B). reflexivity.
Qed.

Lemma exp_part_chars m e0 r x : exp_part m e0 r = Some x -> forallb float_char r = true.
Proof.
  unfold exp_part. destruct r as [|c r]; [reflexivity|].
  destruct (ch c 101 || ch c 69) eqn:E; [|discriminate].
  assert (Hc : float_char c = true).
  { apply orb_true_iff in E as [E|E]; [exact (float_char_ch c 101%N eq_refl E)|exact (float_char_ch c 69%N eq_refl E)]. }
  destruct (sign_split r) as [eneg ds] eqn:Hs. destruct (nonempty ds && all_in is_dig ds) eqn:D; [|discriminate].
  apply andb_true_iff in D as [_ D]. intros _. cbn [forallb].
  rewrite Hc, <- (float_char_sign_split r), Hs. exact (digs_float_char _ D).
Qed.

Lemma core_number_chars b x : core_number b = Some x ->
  forallb float_char b = true /\ numeric_head b = true.
Proof.
  unfold core_number. destruct (span_digits b) as [ip r1] eqn:S.
  destruct (span_digits_spec _ _ _ S) as [-> Hip].
  destruct r1 as [|c r].
  - destruct ip as [|i ip]; [discriminate|]. intros _. rewrite app_nil_r. split; [exact (digs_float_char _ Hip)|].
    exact (numeric_head_digits (i :: ip) eq_refl Hip).
  - destruct (ch c 46) eqn:Ed.
    + destruct (span_digits r) as [fp r2] eqn:S2. destruct (span_digits_spec _ _ _ S2) as [-> Hfp].
      destruct (nonempty ip || nonempty fp) eqn:En; [|discriminate]. intros H.
      pose proof (exp_part_chars _ _ _ _ H) as Hr2.
      split.
      * apply forallb_app_true; [exact (digs_float_char _ Hip)|]. cbn [forallb].
        rewrite (float_char_ch c 46%N eq_refl Ed).
        apply forallb_app_true; [exact (digs_float_char _ Hfp)|exact Hr2].
      * destruct ip as [|i ip]; [|exact (numeric_head_digits (i :: ip) eq_refl Hip)].
        cbn. rewrite Ed. rewrite !orb_true_r. reflexivity.
    + destruct ip as [|i ip]; [discriminate|]. cbn [nonempty]. intros H.
      pose proof (exp_part_chars _ _ _ _ H) as Hr2. split.
      * apply forallb_app_true; [exact (digs_float_char _ Hip)|exact Hr2].
      * exact (numeric_head_digits (i :: ip) eq_refl Hip).
Qed.

Lemma ieq_false_float body w c0 :
  forallb float_char body = true -> hd_error w = Some c0 -> (c0 = 105%N \/ c0 = 110%N) -> ieq body w = false.
Proof. exact (ieq_float_char body w c0). Qed.

(* a number in the spec's float language is read by the Rust f64 grammar model with the same value *)
Lemma rust_parse_number s neg b m e :
  sign_split s = (neg, b) -> core_number b = Some (m, e) -> rust_parse_f64 s = Some (FDec neg m e).
Proof.
  intros Hs Hn. destruct (core_number_chars _ _ Hn) as [Hb _]. rewrite rust_parse_f64_eq.
  destruct s as [|c r]; [inversion Hs; subst; discriminate Hn|].
  rewrite Hs, (rust_body_number _ _ Hb), Hn. reflexivity.
Qed.

(* parse_f64 reads every core-schema float with its value *)
Theorem parse_f64_complete s f : core_float s = Some f -> parse_f64 s = Some f /\ numeric_head s = true.
Proof.
  unfold core_float.
  destruct (inl s [s_dnan; s_dNaN; s_dNAN]) eqn:E1.
  { intros H. inversion H.
    apply (inl_Forall (fun w => parse_f64 w = Some FNan /\ numeric_head w = true) s _ E1). repeat constructor. }
  destruct (sign_split s) as [neg b] eqn:Hs.
  destruct (inl b [s_dinf; s_dInf; s_dINF]) eqn:E2.
  { intros H. inversion H. apply inl_in in E2. cbn [In] in E2.
    destruct (sign_split_cases s); inversion Hs; subst; destruct E2 as [<-|[<-|[<-|[]]]]; split; reflexivity. }
  destruct (core_number b) as [[m e]|] eqn:Hn; [|discriminate].
  intros H. inversion H. subst f.
  destruct (core_number_chars _ _ Hn) as [Hb Hh].
  assert (Hfs : forallb float_char s = true) by (rewrite <- float_char_sign_split, Hs; exact Hb).
  split; [|apply numeric_head_sign; rewrite Hs; exact Hh].
  unfold parse_f64. rewrite tbl_pos_inf, tbl_neg_inf, tbl_nan, tbl_guarded.
  rewrite !(inl_false (fun w => forallb float_char w = true) s _ Hfs) by (repeat constructor; discriminate).
  rewrite Hfs. exact (rust_parse_number _ _ _ _ _ Hs Hn).
Qed.

(* without a core integer that fits, no prefix attempt succeeds: its result would be one, by soundness *)
Lemma prefix_success_int s :
  (forall z, core_int s = Some z -> in_i64 z = false) -> parse_from_cow s = parse_tail s.
Proof.
  intros Hno. pose proof (C08_soundness_fixed s) as HS. unfold parse_from_cow in *.
  destruct (parse_prefixed_cases int_prefixes s) as [E|(p & radix & number & i & _ & _ & R & E)]; [exact E|].
  rewrite E in HS. unfold from_str_radix_ns in R. destruct (starts_signed number); [discriminate|].
  apply from_str_radix_range in R. rewrite (Hno i HS) in R. discriminate.
Qed.

Theorem float_complete s f :
  core_float s = Some f -> (forall z, core_int s = Some z -> in_i64 z = false) -> parse_from_cow s = SFloat f.
Proof.
  intros Hf Hno. rewrite (prefix_success_int s Hno).
  destruct (parse_f64_complete s f Hf) as [Hp Hh].
  unfold parse_tail. rewrite tbl_null, tbl_true, tbl_false.
  destruct (numeric_head_words s Hh) as (-> & -> & ->).
  destruct (parse_i64 s) as [i|] eqn:Ei.
  - pose proof (parse_i64_sound _ _ Ei) as Hc. pose proof (from_str_radix_range _ _ _ Ei) as Hr.
    rewrite (Hno i Hc) in Hr. discriminate.
  - rewrite Hp. reflexivity.
Qed.

(* the oracle holds of the model, for every text *)
Lemma fval_eqb_refl f : fval_eqb f f = true.
Proof. destruct f; cbn; [reflexivity|apply Bool.eqb_reflx|]. rewrite Bool.eqb_reflx, !Z.eqb_refl. reflexivity. Qed.

Lemma scalar_eqb_refl r : scalar_eqb r r = true.
Proof. destruct r; cbn; [reflexivity|apply Bool.eqb_reflx|apply Z.eqb_refl|apply fval_eqb_refl|apply str_eqb_refl]. Qed.

Lemma sound_sound_b s r : sound s r -> sound_b s r = true.
Proof.
  destruct r; cbn; intros H; try rewrite H; cbn;
    [reflexivity|apply Bool.eqb_reflx|apply Z.eqb_refl|apply fval_eqb_refl|apply str_eqb_refl].
Qed.

Theorem c08_untagged_model_ok s : c08_untagged_ok s (parse_from_cow s) = true.
Proof.
  unfold c08_untagged_ok. rewrite (sound_sound_b _ _ (C08_soundness_fixed s)). cbn [andb].
  unfold required.
  destruct (inl s [s_null; s_tilde]) eqn:E1.
  { apply (inl_Forall (fun w => scalar_eqb SNull (parse_from_cow w) = true) s _ E1). repeat constructor. }
  destruct (str_eqb s s_true) eqn:E2; [apply str_eqb_eq in E2; subst; reflexivity|].
  destruct (str_eqb s s_false) eqn:E3; [apply str_eqb_eq in E3; subst; reflexivity|].
  destruct (core_int s) as [z|] eqn:Ci.
  - destruct (in_i64 z) eqn:R.
    + rewrite (int_complete s z Ci R). apply scalar_eqb_refl.
    + destruct (core_float s) as [f|] eqn:Cf; [|reflexivity].
      rewrite (float_complete s f Cf); [apply scalar_eqb_refl|].
      intros z' Hz'. rewrite Ci in Hz'. inversion Hz'; subst. exact R.
  - destruct (core_float s) as [f|] eqn:Cf; [|reflexivity].
    rewrite (float_complete s f Cf); [apply scalar_eqb_refl|]. intros z' Hz'. rewrite Ci in Hz'. discriminate.
Qed.
Print Assumptions c08_untagged_model_ok.

(* tagged plain scalars *)
Lemma parse_i64_untagged s i : parse_i64 s = Some i -> parse_from_cow s = SInt i.
Proof.
  intros H. apply int_complete; [exact (parse_i64_sound _ _ H)|exact (from_str_radix_range _ _ _ H)].
Qed.

Lemma prefixed_not_float s (x : N) d : (x = 120%N \/ x = 111%N) -> strip_prefix [48%N; x] s = Some d -> core_float s = None.
Proof.
  intros Hx P. apply strip_prefix_app in P. subst s.
  assert (H0 : hd_error ([48%N; x] ++ d) = Some 48%N) by reflexivity.
  unfold core_float.
  rewrite (inl_false (fun w => hd_error w = Some 48%N) _ _ H0) by (repeat constructor; discriminate).
  change (sign_split ([48%N; x] ++ d)) with (false, 48%N :: x :: d). cbv beta iota.
  rewrite (inl_false (fun w => hd_error w = Some 48%N) _ _ H0) by (repeat constructor; discriminate).
  unfold core_number. cbn [span_digits]. change (is_dig 48%N) with true. cbv iota.
  assert (Dx : is_dig x = false) by (destruct Hx; subst x; reflexivity).
  rewrite Dx. assert (Cx : ch x 46%N = false) by (destruct Hx; subst x; reflexivity).
  rewrite Cx. cbn [nonempty]. unfold exp_part.
  assert (Ex : ch x 101%N || ch x 69%N = false) by (destruct Hx; subst x; reflexivity).
  rewrite Ex. reflexivity.
Qed.

Lemma digits_dval d v : digits_val 10 d 0 = Some v -> dval d = v.
Proof. unfold dval. intros ->. reflexivity. Qed.

(* a text that is both a core integer and a core float denotes the same number *)
Lemma int_float_agree s z f : core_int s = Some z -> core_float s = Some f -> fval_is_int f z = true.
Proof.
  unfold core_int. intros Hi Hf.
  destruct (strip_prefix [48;120]%N s) as [d|] eqn:P1.
  { rewrite (prefixed_not_float s 120%N d (or_introl eq_refl) P1) in Hf. discriminate. }
  destruct (strip_prefix [48;111]%N s) as [d|] eqn:P2.
  { rewrite (prefixed_not_float s 111%N d (or_intror eq_refl) P2) in Hf. discriminate. }
  (* a decimal integer is neither .nan, nor are its digits .inf *)
  change (dec_int s = Some z) in Hi. unfold core_float in Hf.
  rewrite (inl_false (fun w => dec_int w = Some z) s _ Hi) in Hf by (repeat constructor; discriminate).
  unfold dec_int in Hi. destruct (sign_split s) as [neg d].
  destruct (nonempty d && all_in is_dig d) eqn:E; [|discriminate]. pose proof E as E'. apply andb_true_iff in E as [En Ea].
  destruct (digits_val 10 d 0) as [v|] eqn:D; [|discriminate]. inversion Hi; subst z.
  rewrite (inl_false (fun w => all_in is_dig w = true) d _ Ea) in Hf by (repeat constructor; discriminate).
  unfold core_number in Hf. rewrite (span_digits_all d E'), En in Hf.
  inversion Hf; subst f. cbn [fval_is_int]. rewrite (digits_dval _ _ D), !Z.eqb_refl. reflexivity.
Qed.

Lemma parse_f64_untagged s f : parse_f64 s = Some f ->
  match parse_from_cow s with
  | SFloat g => fval_eqb f g = true
  | SInt z => fval_is_int f z = true
  | _ => False
  end.
Proof.
  intros H. pose proof (parse_f64_sound _ _ H) as Hf.
  destruct (core_int s) as [z|] eqn:Ci.
  - destruct (in_i64 z) eqn:R.
    + rewrite (int_complete s z Ci R). exact (int_float_agree _ _ _ Ci Hf).
    + rewrite (float_complete s f Hf); [apply fval_eqb_refl|]. intros z' Hz'. rewrite Ci in Hz'. inversion Hz'; subst. exact R.
  - rewrite (float_complete s f Hf); [apply fval_eqb_refl|]. intros z' Hz'. rewrite Ci in Hz'. discriminate.
Qed.

Lemma tbl_tagged_null : tagged_null_words = [s_tilde; s_null].
Proof. reflexivity. Qed.

Theorem c08_tagged_model_ok suffix s :
  c08_tagged_ok suffix s (parse_from_cow s) (parse_from_cow_and_metadata s true (Some (core_tag_prefix, suffix))) = true.
Proof.
  unfold parse_from_cow_and_metadata, c08_tagged_ok. cbn [negb]. rewrite str_eqb_refl.
  destruct (str_eqb suffix w_int) eqn:S1.
  { apply str_eqb_eq in S1. subst suffix. change (str_eqb w_int w_bool) with false. cbv iota.
    destruct (parse_i64 s) as [i|] eqn:E; cbn [option_map].
    - rewrite (parse_i64_untagged _ _ E). apply scalar_eqb_refl.
    - destruct (dec_int s) as [z|] eqn:D; [|reflexivity]. destruct (in_i64 z) eqn:R; [|reflexivity].
      rewrite (parse_i64_complete _ _ D R) in E. discriminate. }
  destruct (str_eqb suffix w_float) eqn:S2.
  { apply str_eqb_eq in S2. subst suffix. change (str_eqb w_float w_bool) with false. cbv iota.
    destruct (parse_f64 s) as [f|] eqn:E; cbn [option_map].
    - pose proof (parse_f64_untagged _ _ E) as HU. destruct (parse_from_cow s); try contradiction; exact HU.
    - destruct (core_float s) as [f|] eqn:Cf; [|reflexivity].
      destruct (parse_f64_complete _ _ Cf) as [Hp _]. rewrite Hp in E. discriminate. }
  destruct (str_eqb suffix w_bool) eqn:S3.
  { unfold parse_bool. destruct (str_eqb s s_true) eqn:T; [apply str_eqb_eq in T; subst; reflexivity|].
    destruct (str_eqb s s_false) eqn:F; [apply str_eqb_eq in F; subst; reflexivity|]. reflexivity. }
  destruct (str_eqb suffix w_null) eqn:S4.
  { rewrite tbl_tagged_null.
    destruct (inl s [s_tilde; s_null]) eqn:E.
    - apply (inl_Forall (fun w => scalar_eqb (parse_from_cow w) SNull = true) s _ E). repeat constructor.
    - rewrite (inl_false (fun w => inl w [s_tilde; s_null] = false) s _ E) by (repeat constructor; discriminate).
      reflexivity. }
  apply str_eqb_refl.
Qed.
Print Assumptions c08_tagged_model_ok.

(* non-plain styles and non-core tags: always a string with identical content *)
Theorem c08_nonplain_string s tg : parse_from_cow_and_metadata s false tg = Some (SStr s).
Proof. reflexivity. Qed.
Theorem c08_foreign_tag_string s h sfx :
  str_eqb h core_tag_prefix = false -> parse_from_cow_and_metadata s true (Some (h, sfx)) = Some (SStr s).
Proof. intros H. unfold parse_from_cow_and_metadata. cbn [negb]. rewrite H. reflexivity. Qed.
