(* C15, scanner half: a FRAME calculus for the scanner monad, generic in the input type and its operations.

   [Fr m] : every normal return of [m] leaves the scanner's SKELETON alone: the simple-key stack, the flow level, the
   per-collection implicit-flow-mapping stack ([sc_ifms], the field that replaced the sticky flow_mapping_started flag
   in /repo ad74b3e), the token queue, the counters and stream flags are unchanged; the indent stack is unchanged or
   has lost its non-block entries ([unroll_nb]); simple keys may have become allowed but never disallowed.

   All character-level scanners (white space, directives, tags, anchors, flow / plain / block scalars) are frames:
   whatever they read, they cannot carry anything from one document into the next except through the position.
   The file does not use Proofs/ScanWP.v, whose [keeps] is the same idea over the buffered input with panic-freedom
   on top. *)
From Coq Require Import List NArith ZArith Bool Lia.
Import ListNotations.
Require Import Parser SBase SPrim SDir SScalar SFetch.
Require ScanSkel.

(* [Pres R m]: every normal return of [m] relates the state before to the state after by [R].  The rules of the monad
   need of [R] only that it is a preorder; [Fr] below, and [XFr] and [Keepk] of Proofs/DocScan.v, are [Pres] at their
   relation. *)
Section Pres.
Context {I : Type}.
Notation st := (sc I).
Notation M := (@M I).

Lemma bind_inv {A B} (m : M A) (f : A -> M B) s b s' :
  bind m f s = Ok (b, s') -> exists a s1, m s = Ok (a, s1) /\ f a s1 = Ok (b, s').
Proof. unfold bind. destruct (m s) as [[a s1]| | |]; try discriminate. eauto. Qed.

Definition Pres (R : st -> st -> Prop) {A} (m : M A) : Prop := forall s a s', m s = Ok (a, s') -> R s s'.

Lemma Pres_fail R {A} e mk : Pres R (@fail I A e mk).
Proof. intros s a s' H. discriminate. Qed.
Lemma Pres_panic R {A} n : Pres R (@panic I A n).
Proof. intros s a s' H. discriminate. Qed.
Lemma Pres_oof R {A} : Pres R (@oof I A).
Proof. intros s a s' H. discriminate. Qed.
Lemma Pres_modify (R : st -> st -> Prop) f : (forall s, R s (f s)) -> Pres R (modify f).
Proof. intros Hf s a s' H. inversion H; subst. apply Hf. Qed.
Lemma Pres_impl (R R' : st -> st -> Prop) {A} (m : M A) : (forall s s', R s s' -> R' s s') -> Pres R m -> Pres R' m.
Proof. intros HR H s a s' E. apply HR, (H s a s' E). Qed.

Section Preorder.
Variable R : st -> st -> Prop.
Hypothesis R_refl : forall s, R s s.
Hypothesis R_trans : forall s1 s2 s3, R s1 s2 -> R s2 s3 -> R s1 s3.

Lemma Pres_ret {A} (a : A) : Pres R (ret a).
Proof. intros s a' s' H. inversion H; subst. apply R_refl. Qed.
Lemma Pres_get : Pres R get.
Proof. intros s a s' H. inversion H; subst. apply R_refl. Qed.
Lemma Pres_gets {A} (f : st -> A) : Pres R (gets f).
Proof. intros s a s' H. inversion H; subst. apply R_refl. Qed.
Lemma Pres_bind {A B} (m : M A) (f : A -> M B) : Pres R m -> (forall a, Pres R (f a)) -> Pres R (bind m f).
Proof.
  intros Hm Hf s b s' H. apply bind_inv in H. destruct H as (a & s1 & E & H).
  eapply R_trans; [eapply Hm; eauto | eapply Hf; eauto].
Qed.
End Preorder.

End Pres.

(* [walk bnd leaf]: structural descent through a monadic term, for any judgment whose last argument is the
   computation: [bnd] applies the judgment's rule for [bind], [leaf] closes what has no further structure *)
Ltac walk bnd leaf :=
  repeat lazymatch goal with
  | |- forall _, _ => intro
  | |- _ (bind _ _) => bnd
  | |- _ (if ?b then _ else _) => destruct b
  | |- _ (match ?x with _ => _ end) => destruct x
  | |- _ => leaf
  end.

(* What skipping white space and comments inside a line asks of [R]: a preorder that admits any change of the input
   and an advance of the mark that stays on its line.  [frame] is one, and so is [xframe] of Proofs/DocScan.v. *)
Section Inert.
Context {I : Type}.
Notation st := (sc I).
Notation M := (@M I).

Record inert (R : st -> st -> Prop) : Prop := {
  inert_refl : forall s, R s s;
  inert_trans : forall s1 s2 s3, R s1 s2 -> R s2 s3 -> R s1 s3;
  inert_in : forall i s, R s (set_in i s);
  inert_adv : forall n s, R s (set_mark (adv n (sc_mark s)) s) }.

Context (ops : InputOps I).
Variable R : st -> st -> Prop.
Hypothesis HR : inert R.

Lemma Pres_look n : Pres R (look ops n).
Proof.
  intros s a s'. unfold look. destruct (lookahead ops n (sc_in s)); try discriminate.
  intros H; inversion H; subst. apply (inert_in _ HR).
Qed.
Lemma Pres_peekn n : Pres R (peekn ops n).
Proof.
  intros s a s'. unfold peekn. destruct (peek_nth ops n (sc_in s)); try discriminate.
  intros H; inversion H; subst. apply (inert_refl _ HR).
Qed.
Lemma Pres_peek : Pres R (SPrim.peek ops).
Proof. apply Pres_peekn. Qed.
Lemma Pres_in_skip : Pres R (in_skip ops).
Proof. apply Pres_modify. intros s. apply (inert_in _ HR). Qed.
Lemma Pres_adv_mark n : Pres R (@adv_mark I n).
Proof. apply Pres_modify. intros s. apply (inert_adv _ HR). Qed.
Lemma Pres_mark : Pres R (@mark I).
Proof. apply Pres_gets, (inert_refl _ HR). Qed.
Hint Resolve Pres_look Pres_peekn Pres_peek Pres_in_skip Pres_adv_mark Pres_mark : pres.

Ltac pr :=
  walk ltac:(apply (Pres_bind R (inert_trans _ HR)))
       ltac:(first [assumption | apply Pres_ret, (inert_refl _ HR) | apply Pres_fail | apply Pres_oof
                   | solve [auto with pres]]).

Lemma Pres_look_ch : Pres R (look_ch ops).
Proof. unfold look_ch. pr. Qed.
Lemma Pres_skip_blank : Pres R (skip_blank ops).
Proof. unfold skip_blank. pr. Qed.
Lemma Pres_next_is p : Pres R (next_is ops p).
Proof. unfold next_is. pr. Qed.
Hint Resolve Pres_look_ch Pres_skip_blank Pres_next_is : pres.

Lemma Pres_in_skip_ws_to_eol fuel : forall stb tab ws n, Pres R (in_skip_ws_to_eol ops fuel stb tab ws n).
Proof.
  induction fuel as [|fuel IH]; intros stb tab ws n; cbn [in_skip_ws_to_eol]; [apply Pres_oof|].
  assert (HC : forall f k, Pres R ((fix comment (f : nat) (k : N) : M (N * option (bool * bool)) :=
           match f with
           | O => oof
           | S f => bind (look_ch ops) (fun c => if is_breakz c then in_skip_ws_to_eol ops fuel stb tab ws (k + 1)
                                    else bind (in_skip ops) (fun _ => comment f (k + 1)))
           end) f k)).
  { induction f as [|f IHf]; intros k; [apply Pres_oof|]. pr. }
  pr.
Qed.
Lemma Pres_in_skip_while fuel p : Pres R (in_skip_while ops fuel p).
Proof.
  unfold in_skip_while. generalize 0%N. induction fuel as [|f IH]; intros k; [apply Pres_oof|]. pr.
Qed.
Hint Resolve Pres_in_skip_ws_to_eol : pres.
Lemma Pres_skip_ws_to_eol fuel stb : Pres R (skip_ws_to_eol ops fuel stb).
Proof. unfold skip_ws_to_eol. pr. Qed.

End Inert.

Section Frame.
Context {I : Type}.
Notation st := (sc I).
Notation M := (@M I).

Definition nbrel (a b : Z * list indent_rec) : Prop := b = a \/ b = unroll_nb (snd a) (fst a).

Definition frame (s s' : st) : Prop :=
  sc_sks s' = sc_sks s /\ sc_flow_level s' = sc_flow_level s /\ sc_ifms s' = sc_ifms s
  /\ sc_tokens s' = sc_tokens s /\ sc_tokens_parsed s' = sc_tokens_parsed s
  /\ sc_stream_start s' = sc_stream_start s /\ sc_stream_end s' = sc_stream_end s
  /\ sc_adjacent s' = sc_adjacent s /\ sc_token_available s' = sc_token_available s
  /\ (sc_ska s = true -> sc_ska s' = true)
  /\ nbrel (sc_indent s, sc_indents s) (sc_indent s', sc_indents s').

Lemma frame_refl s : frame s s.
Proof. unfold frame, nbrel. repeat split; auto. Qed.

Lemma nbrel_trans a b c : nbrel a b -> nbrel b c -> nbrel a c.
Proof.
  unfold nbrel. intros [->| ->] [->| ->]; auto. right. apply ScanSkel.unroll_nb_idem.
Qed.

Lemma frame_trans s1 s2 s3 : frame s1 s2 -> frame s2 s3 -> frame s1 s3.
Proof.
  unfold frame.
  intros (A1 & A2 & A3 & A4 & A5 & A6 & A7 & A8 & A9 & A10 & A11) (B1 & B2 & B3 & B4 & B5 & B6 & B7 & B8 & B9 & B10 & B11).
  repeat split; try congruence; [auto | eapply nbrel_trans; eauto].
Qed.

Definition Fr {A} (m : M A) : Prop := forall s a s', m s = Ok (a, s') -> frame s s'.

Lemma Fr_ret {A} (a : A) : Fr (ret a).
Proof. exact (Pres_ret frame frame_refl a). Qed.
Lemma Fr_fail {A} e mk : Fr (@fail I A e mk).
Proof. exact (Pres_fail frame e mk). Qed.
Lemma Fr_panic {A} n : Fr (@panic I A n).
Proof. exact (Pres_panic frame n). Qed.
Lemma Fr_oof {A} : Fr (@oof I A).
Proof. exact (Pres_oof frame). Qed.
Lemma Fr_bind {A B} (m : M A) (f : A -> M B) : Fr m -> (forall a, Fr (f a)) -> Fr (bind m f).
Proof. exact (Pres_bind frame frame_trans m f). Qed.
Lemma Fr_get : Fr (@get I).
Proof. exact (Pres_get frame frame_refl). Qed.
Lemma Fr_gets {A} (f : st -> A) : Fr (gets f).
Proof. exact (Pres_gets frame frame_refl f). Qed.
Lemma Fr_modify f : (forall s, frame s (f s)) -> Fr (modify f).
Proof. exact (Pres_modify frame f). Qed.

Lemma frame_set_in i (s : st) : frame s (set_in i s).
Proof. unfold frame, nbrel; cbn. repeat split; auto. Qed.
Lemma frame_set_mark m (s : st) : frame s (set_mark m s).
Proof. unfold frame, nbrel; cbn. repeat split; auto. Qed.
Lemma frame_set_lws b (s : st) : frame s (set_lws b s).
Proof. unfold frame, nbrel; cbn. repeat split; auto. Qed.
Lemma frame_allow (s : st) : frame s (set_ska true s).
Proof. unfold frame, nbrel; cbn. repeat split; auto. Qed.

Lemma frame_inert : inert frame.
Proof. split; [exact frame_refl|exact frame_trans|intros; apply frame_set_in|intros; apply frame_set_mark]. Qed.

Context (ops : InputOps I).

Lemma Fr_look n : Fr (look ops n).
Proof. exact (Pres_look ops frame frame_inert n). Qed.
Lemma Fr_peekn n : Fr (peekn ops n).
Proof. exact (Pres_peekn ops frame frame_inert n). Qed.
Lemma Fr_peek : Fr (SPrim.peek ops).
Proof. exact (Pres_peek ops frame frame_inert). Qed.
Lemma Fr_look_ch : Fr (look_ch ops).
Proof. exact (Pres_look_ch ops frame frame_inert). Qed.
Lemma Fr_in_skip : Fr (in_skip ops).
Proof. exact (Pres_in_skip ops frame frame_inert). Qed.
Lemma Fr_in_skip_n n : Fr (in_skip_n ops n).
Proof.
  intros s a s'. unfold in_skip_n. destruct (skip_n ops n (sc_in s)); try discriminate.
  intros H; inversion H; subst. apply frame_set_in.
Qed.
Lemma Fr_raw_read : Fr (raw_read ops).
Proof.
  intros s a s'. unfold raw_read. destruct (raw_read_non_breakz ops (sc_in s)) as [[c i]| | |]; try discriminate.
  intros H; inversion H; subst. apply frame_set_in.
Qed.
Lemma Fr_buf_is_empty : Fr (buf_is_empty ops).
Proof. apply Fr_gets. Qed.
Lemma Fr_assert_buflen n site : Fr (assert_buflen ops n site).
Proof.
  intros s a s'. unfold assert_buflen. destruct (Nat.ltb _ n); try discriminate.
  intros H; inversion H; subst. apply frame_refl.
Qed.
Lemma Fr_mark : Fr (@mark I).
Proof. exact (Pres_mark frame frame_inert). Qed.
Lemma Fr_adv_mark n : Fr (@adv_mark I n).
Proof. exact (Pres_adv_mark frame frame_inert n). Qed.
Lemma Fr_flow_level : Fr (@flow_level I).
Proof. apply Fr_gets. Qed.
Lemma Fr_allow_simple_key : Fr (@allow_simple_key I).
Proof. apply Fr_modify. intros s. apply frame_allow. Qed.
Lemma Fr_set_lws b : Fr (modify (@set_lws I b)).
Proof. apply Fr_modify. intros s. apply frame_set_lws. Qed.
Lemma Fr_is_within_block : Fr (@is_within_block I).
Proof. apply Fr_gets. Qed.
Lemma Fr_col : Fr (@col I).
Proof. apply Fr_gets. Qed.
Lemma Fr_col_lt_indent : Fr (@col_lt_indent I).
Proof. apply Fr_gets. Qed.
Lemma Fr_unroll_non_block_indents : Fr (@unroll_non_block_indents I).
Proof.
  apply Fr_modify. intros s. destruct (unroll_nb (sc_indents s) (sc_indent s)) as [ind l] eqn:E.
  unfold frame, nbrel; cbn. repeat split; auto.
Qed.
Lemma Fr_skip_nl : Fr (skip_nl ops).
Proof.
  unfold skip_nl. apply Fr_bind; [apply Fr_in_skip|]. intros _. apply Fr_modify. intros s.
  eapply frame_trans; [apply frame_set_mark|apply frame_set_lws].
Qed.

End Frame.

#[export] Hint Resolve Fr_ret Fr_fail Fr_panic Fr_oof Fr_get Fr_gets Fr_look Fr_peekn Fr_peek Fr_look_ch Fr_in_skip
  Fr_in_skip_n Fr_raw_read Fr_buf_is_empty Fr_assert_buflen Fr_mark Fr_adv_mark Fr_flow_level Fr_allow_simple_key
  Fr_set_lws Fr_is_within_block Fr_col Fr_col_lt_indent Fr_unroll_non_block_indents Fr_skip_nl : fr.

Ltac fr := walk ltac:(apply Fr_bind) ltac:(first [assumption | solve [auto with fr]]).

Section Frame2.
Context {I : Type} (ops : InputOps I).
Notation M := (@M I).

Lemma Fr_skip_blank : Fr (skip_blank ops).
Proof. exact (Pres_skip_blank ops frame frame_inert). Qed.
Lemma Fr_skip_non_blank : Fr (skip_non_blank ops).
Proof. unfold skip_non_blank. fr. Qed.
Lemma Fr_skip_n_non_blank n : Fr (skip_n_non_blank ops n).
Proof. unfold skip_n_non_blank. fr. Qed.
Lemma Fr_next_char_is c : Fr (next_char_is ops c).
Proof. unfold next_char_is. fr. Qed.
Lemma Fr_nth_char_is n c : Fr (nth_char_is ops n c).
Proof. unfold nth_char_is. fr. Qed.
Lemma Fr_next_2_are a b : Fr (next_2_are ops a b).
Proof. unfold next_2_are. fr. Qed.
Lemma Fr_next_3_are a b c : Fr (next_3_are ops a b c).
Proof. unfold next_3_are. fr. Qed.
Hint Resolve Fr_skip_blank Fr_skip_non_blank Fr_skip_n_non_blank Fr_next_char_is Fr_nth_char_is Fr_next_2_are Fr_next_3_are : fr.
Lemma Fr_next_is_document_indicator : Fr (next_is_document_indicator ops).
Proof. unfold next_is_document_indicator. fr. Qed.
Lemma Fr_next_is_document_start : Fr (next_is_document_start ops).
Proof. unfold next_is_document_start. fr. Qed.
Lemma Fr_next_is_document_end : Fr (next_is_document_end ops).
Proof. unfold next_is_document_end. fr. Qed.
Lemma Fr_next_is p : Fr (next_is ops p).
Proof. exact (Pres_next_is ops frame frame_inert p). Qed.
Lemma Fr_next_can_be_plain_scalar b : Fr (next_can_be_plain_scalar ops b).
Proof. unfold next_can_be_plain_scalar. fr. Qed.
Lemma Fr_skip_linebreak : Fr (skip_linebreak ops).
Proof. unfold skip_linebreak. fr. Qed.
Lemma Fr_skip_break : Fr (skip_break ops).
Proof. unfold skip_break. fr. Qed.
Hint Resolve Fr_next_is_document_indicator Fr_next_is_document_start Fr_next_is_document_end Fr_next_is
  Fr_next_can_be_plain_scalar Fr_skip_linebreak Fr_skip_break : fr.

Lemma Fr_in_skip_ws_to_eol fuel : forall stb tab ws n, Fr (in_skip_ws_to_eol ops fuel stb tab ws n).
Proof. exact (Pres_in_skip_ws_to_eol ops frame frame_inert fuel). Qed.
Hint Resolve Fr_in_skip_ws_to_eol : fr.

Lemma Fr_in_skip_while fuel p : Fr (in_skip_while ops fuel p).
Proof. exact (Pres_in_skip_while ops frame frame_inert fuel p). Qed.
Lemma Fr_in_fetch_while_alpha fuel acc : Fr (in_fetch_while_alpha ops fuel acc).
Proof.
  unfold in_fetch_while_alpha. generalize 0%N. revert acc. induction fuel as [|f IH]; intros acc k; [apply Fr_oof|]. fr.
Qed.
Hint Resolve Fr_in_skip_while Fr_in_fetch_while_alpha : fr.
Lemma Fr_in_skip_while_non_breakz fuel : Fr (in_skip_while_non_breakz ops fuel).
Proof. apply Fr_in_skip_while. Qed.
Lemma Fr_in_skip_while_blank fuel : Fr (in_skip_while_blank ops fuel).
Proof. apply Fr_in_skip_while. Qed.
Hint Resolve Fr_in_skip_while_non_breakz Fr_in_skip_while_blank : fr.

Lemma Fr_skip_ws_to_eol fuel stb : Fr (skip_ws_to_eol ops fuel stb).
Proof. exact (Pres_skip_ws_to_eol ops frame frame_inert fuel stb). Qed.
Hint Resolve Fr_skip_ws_to_eol : fr.

Lemma Fr_skip_to_next_token fuel : Fr (skip_to_next_token ops fuel).
Proof. induction fuel as [|f IH]; cbn [skip_to_next_token]; [apply Fr_oof|]. fr. Qed.

Lemma Fr_skip_yaml_whitespace fuel : Fr (skip_yaml_whitespace ops fuel).
Proof.
  unfold skip_yaml_whitespace. generalize true. generalize fuel at 2. intros f.
  induction f as [|f IH]; intros need; [apply Fr_oof|]. fr.
Qed.
Hint Resolve Fr_skip_to_next_token Fr_skip_yaml_whitespace : fr.

End Frame2.

#[export] Hint Resolve Fr_skip_blank Fr_skip_non_blank Fr_skip_n_non_blank Fr_next_char_is Fr_nth_char_is Fr_next_2_are
  Fr_next_3_are Fr_next_is_document_indicator Fr_next_is_document_start Fr_next_is_document_end Fr_next_is
  Fr_next_can_be_plain_scalar Fr_skip_linebreak Fr_skip_break Fr_in_skip_ws_to_eol Fr_in_skip_while
  Fr_in_fetch_while_alpha Fr_in_skip_while_non_breakz Fr_in_skip_while_blank Fr_skip_ws_to_eol Fr_skip_to_next_token
  Fr_skip_yaml_whitespace : fr.

(* directives, tags, anchors (Model/SDir.v) *)
(* [fr_fix]: the goal is [Fr] of a loop the model writes as a local [fix] over its fuel; the fix has no name, so it
   is taken as the head [g] of the application, by the number of its arguments (the fuel first, then up to five
   others).  [Fr (g n x1 ..)] for all arguments, by induction on the fuel [n]; the step is left with [IH] in the context,
   the base case is [oof]. *)
Ltac fr_fix :=
  let H := fresh "HF" in
  lazymatch goal with
  | |- Fr (?g _ _ _ _ _ _) => assert (H : forall n x1 x2 x3 x4 x5, Fr (g n x1 x2 x3 x4 x5))
  | |- Fr (?g _ _ _ _ _) => assert (H : forall n x1 x2 x3 x4, Fr (g n x1 x2 x3 x4))
  | |- Fr (?g _ _ _ _) => assert (H : forall n x1 x2 x3, Fr (g n x1 x2 x3))
  | |- Fr (?g _ _ _) => assert (H : forall n x1 x2, Fr (g n x1 x2))
  | |- Fr (?g _ _) => assert (H : forall n x1, Fr (g n x1))
  | |- Fr (?g _) => assert (H : forall n, Fr (g n))
  end;
  [ let n := fresh "n" in let IH := fresh "IH" in intros n; induction n as [|n IH]; intros; [apply Fr_oof|] | apply H ].

Section Frame3.
Context {I : Type} (ops : InputOps I).
Notation M := (@M I).
Variable F : nat.

Lemma Fr_scan_uri_escapes mk : Fr (scan_uri_escapes ops mk).
Proof. unfold scan_uri_escapes. fr. all: fr_fix; fr. Qed.
Hint Resolve Fr_scan_uri_escapes : fr.
Lemma Fr_scan_tag_handle d mk : Fr (scan_tag_handle ops F d mk).
Proof. unfold scan_tag_handle. fr. Qed.
Lemma Fr_uri_loop p mk acc : Fr (uri_loop ops F p mk acc).
Proof. unfold uri_loop. fr_fix. fr. Qed.
Hint Resolve Fr_scan_tag_handle Fr_uri_loop : fr.
Lemma Fr_scan_tag_prefix mk : Fr (scan_tag_prefix ops F mk).
Proof. unfold scan_tag_prefix. fr. Qed.
Lemma Fr_scan_verbatim_tag mk : Fr (scan_verbatim_tag ops F mk).
Proof. unfold scan_verbatim_tag. fr. Qed.
Lemma Fr_scan_tag_shorthand_suffix h mk : Fr (scan_tag_shorthand_suffix ops F h mk).
Proof. unfold scan_tag_shorthand_suffix. fr. Qed.
Hint Resolve Fr_scan_tag_prefix Fr_scan_verbatim_tag Fr_scan_tag_shorthand_suffix : fr.
Lemma Fr_scan_tag : Fr (scan_tag ops F).
Proof. unfold scan_tag. fr. Qed.
Lemma Fr_scan_anchor alias : Fr (scan_anchor ops F alias).
Proof. unfold scan_anchor. fr. fr_fix. fr. Qed.
Lemma Fr_scan_version_directive_number mk : Fr (scan_version_directive_number ops F mk).
Proof. unfold scan_version_directive_number. fr_fix. fr. Qed.
Hint Resolve Fr_scan_version_directive_number : fr.
Lemma Fr_scan_version_directive_value mk : Fr (scan_version_directive_value ops F mk).
Proof. unfold scan_version_directive_value. fr. Qed.
Lemma Fr_scan_tag_directive_value mk : Fr (scan_tag_directive_value ops F mk).
Proof. unfold scan_tag_directive_value. fr. Qed.
Lemma Fr_scan_directive_name : Fr (scan_directive_name ops F).
Proof. unfold scan_directive_name. fr. Qed.
Hint Resolve Fr_scan_version_directive_value Fr_scan_tag_directive_value Fr_scan_directive_name : fr.
Lemma Fr_scan_directive : Fr (scan_directive ops F).
Proof. unfold scan_directive. fr. Qed.

(* flow, plain and block scalars (Model/SScalar.v) *)
Lemma Fr_read_hex n : forall i acc start, Fr (read_hex ops n i acc start).
Proof. induction n as [|n IH]; intros; cbn [read_hex]; fr. Qed.
Hint Resolve Fr_read_hex : fr.
Lemma Fr_resolve_escape start : Fr (resolve_escape ops start).
Proof. unfold resolve_escape. fr. Qed.
Hint Resolve Fr_resolve_escape : fr.
Lemma Fr_consume_nonws fuel : forall single acc start, Fr (consume_nonws ops fuel single acc start).
Proof. induction fuel as [|f IH]; intros; cbn [consume_nonws]; fr. Qed.
Lemma Fr_flow_blanks fuel : forall lbl lb tb ws, Fr (flow_blanks ops fuel lbl lb tb ws).
Proof. induction fuel as [|f IH]; intros; cbn [flow_blanks]; fr. Qed.
Hint Resolve Fr_consume_nonws Fr_flow_blanks : fr.
Lemma Fr_scan_flow_scalar single : Fr (scan_flow_scalar ops F single).
Proof. unfold scan_flow_scalar. fr. fr_fix. fr. Qed.

Lemma Fr_plain_chunk fuel : forall j acc, Fr (plain_chunk ops fuel j acc).
Proof. induction fuel as [|f IH]; intros; cbn [plain_chunk]; fr. Qed.
Lemma Fr_plain_blanks fuel : forall indent start lb tb ws, Fr (plain_blanks ops F fuel indent start lb tb ws).
Proof. induction fuel as [|f IH]; intros; cbn [plain_blanks]; fr. Qed.
Hint Resolve Fr_plain_chunk Fr_plain_blanks : fr.
Lemma Fr_scan_plain_scalar : Fr (scan_plain_scalar ops F).
Proof. unfold scan_plain_scalar. fr. fr_fix. fr. Qed.

Lemma Fr_scan_block_scalar_content_line acc : Fr (scan_block_scalar_content_line ops F acc).
Proof. unfold scan_block_scalar_content_line. fr. fr_fix. fr. fr_fix. fr. Qed.
Lemma Fr_skip_spaces_to fuel : forall indent cb, Fr (skip_spaces_to ops fuel indent cb).
Proof. induction fuel as [|f IH]; intros; cbn [skip_spaces_to]; fr. Qed.
Hint Resolve Fr_scan_block_scalar_content_line Fr_skip_spaces_to : fr.
Lemma Fr_skip_block_scalar_indent fuel : forall indent breaks, Fr (skip_block_scalar_indent ops F fuel indent breaks).
Proof. induction fuel as [|f IH]; intros; cbn [skip_block_scalar_indent]; fr. fr_fix. fr. Qed.
Lemma Fr_skip_first_line_indent fuel : forall maxi breaks, Fr (skip_first_line_indent ops F fuel maxi breaks).
Proof. induction fuel as [|f IH]; intros; cbn [skip_first_line_indent]; fr. fr_fix. fr. Qed.
Hint Resolve Fr_skip_block_scalar_indent Fr_skip_first_line_indent : fr.
Lemma Fr_scan_block_scalar literal : Fr (scan_block_scalar ops F literal).
Proof. unfold scan_block_scalar. fr. fr_fix. fr. Qed.

End Frame3.

#[export] Hint Resolve Fr_scan_tag Fr_scan_anchor Fr_scan_directive Fr_scan_flow_scalar Fr_scan_plain_scalar
  Fr_scan_block_scalar : fr.

(* all character-level scanners at once *)
Theorem char_scanners_are_frames {I : Type} (ops : InputOps I) (F : nat) :
  Fr (skip_to_next_token ops F) /\ Fr (skip_ws_to_eol ops F SkipYes) /\ Fr (skip_yaml_whitespace ops F)
  /\ Fr (scan_directive ops F) /\ Fr (scan_tag ops F) /\ (forall alias, Fr (scan_anchor ops F alias))
  /\ (forall single, Fr (scan_flow_scalar ops F single)) /\ Fr (scan_plain_scalar ops F)
  /\ (forall literal, Fr (scan_block_scalar ops F literal)).
Proof.
  split; [apply Fr_skip_to_next_token|]. split; [apply Fr_skip_ws_to_eol|]. split; [apply Fr_skip_yaml_whitespace|].
  split; [apply Fr_scan_directive|]. split; [apply Fr_scan_tag|]. split; [intros; apply Fr_scan_anchor|].
  split; [intros; apply Fr_scan_flow_scalar|]. split; [apply Fr_scan_plain_scalar|]. intros; apply Fr_scan_block_scalar.
Qed.
