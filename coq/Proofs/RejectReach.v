(* C06 -- rejection lemmas, part 4: the state-level rejection theorems of Proofs/RejectScan.v for EVERY state the scanner
   reaches on ANY text, with the structural hypotheses discharged by the two global invariants that other developments prove
   for all reachable states:
     - DocScan.SkInv (C15): the implicit-flow-mapping stack has exactly flow_level entries, the indentation stack is a strictly
       increasing chain above -1, one key slot per flow level;
     - ScanSafeStrFetch.J / SInv' (no-panic proof of the string back-end): every possible key candidate points into the token
       queue (tokens_parsed <= token_number <= tokens_parsed + length queue).
   What remains as hypotheses are only the SEMANTIC facts of the situation (where the scanner stands, what the innermost
   flow level is, where the key candidate began).  Nothing of the two frameworks is modified; only their theorems are used. *)
From Coq Require Import List NArith ZArith Bool Lia.
Import ListNotations.
Require DocScan ScanSafeStrWP ScanSafeStrFetch.
Require Import Parser SBase SPrim SDir SScalar SFetch Pipe SInv Grammar C02base C02rest C02tail C02run DocReset RejectProofs RejectScan RejectFlow.

Arguments N.add : simpl never.
Arguments N.sub : simpl never.
Arguments N.eqb : simpl never.
Arguments N.ltb : simpl never.
Arguments N.leb : simpl never.
Arguments Nat.max : simpl never.
Open Scope N_scope.
Open Scope mon_scope.

Notation chars_of s := (si_chars (sc_in s)).

(* both invariants *)
Definition RInv (s : sc strin) : Prop := DocScan.SkInv s /\ ScanSafeStrFetch.J s.

Lemma RInv_init l : RInv (init_sc {| si_chars := l; si_look := 0 |}) /\ ScanSafeStrFetch.SInv' (init_sc {| si_chars := l; si_look := 0 |}).
Proof.
  split; [split|].
  - apply DocScan.SkInv_init.
  - apply (ScanSafeStrFetch.sinv'_init {| si_chars := l; si_look := 0 |}).
  - apply ScanSafeStrFetch.sinv'_init.
Qed.

(* ... hold in every state the token iterator goes through ... *)
Lemma reach_RInv F n s0 s : reach F n s0 s -> DocScan.SkInv s0 -> ScanSafeStrFetch.SInv' s0 ->
  DocScan.SkInv s /\ ScanSafeStrFetch.SInv' s.
Proof.
  induction 1 as [s|n s t s1 s2 HN HR IH]; intros H1 H2; [split; assumption|].
  apply IH.
  - exact (DocScan.next_token_SkInv str_ops F s (Some t) s1 H1 HN).
  - pose proof (ScanSafeStrFetch.ws_next_token F s H2) as W. unfold ScanSafeStrWP.wps in W.
    change ScanSafeStrWP.sops with str_ops in W. rewrite HN in W. exact W.
Qed.

(* ... and in every round of a refill *)
Lemma need_more_RInv s b s1 : RInv s -> need_more s = Ok (b, s1) -> RInv s1.
Proof.
  intros [H1 H2] E. unfold need_more in E. unfold bind at 1, get at 1 in E.
  destruct (sc_tokens s) as [|t ts].
  - inversion E; subst. split; assumption.
  - unfold bind at 1 in E. destruct (stale_simple_keys s) as [[u s']| | |] eqn:ES; try discriminate.
    unfold bind, get, ret in E. inversion E; subst. split.
    + exact (DocScan.Tr_stale_SkInv s u s1 H1 ES).
    + pose proof (ScanSafeStrFetch.ws_stale_J (fun _ s' => ScanSafeStrFetch.J s') s H2 (fun s' HJ _ _ _ => HJ)) as W.
      unfold ScanSafeStrWP.wps in W. rewrite ES in W. exact W.
Qed.

Lemma fetch_RInv F s s2 : RInv s -> fetch_next_token str_ops F s = Ok (tt, s2) -> RInv s2.
Proof.
  intros [H1 H2] E. split.
  - exact (DocScan.fetch_next_token_SkInv str_ops F s tt s2 H1 E).
  - pose proof (ScanSafeStrFetch.ws_fetch_next_token F s H2) as W. unfold ScanSafeStrWP.wps in W.
    change ScanSafeStrWP.sops with str_ops in W. rewrite E in W. apply ScanSafeStrFetch.si_J. exact W.
Qed.

Lemma rounds_RInv F k s s' : rounds F k s s' -> RInv s -> RInv s'.
Proof.
  induction 1 as [s|n s s1 s2 s3 HN HFe HR IH]; intros HI; [exact HI|].
  apply IH. apply (fetch_RInv F s1 s2); [|exact HFe]. exact (need_more_RInv s true s1 HI HN).
Qed.

(* the state in which a round of ANY scan fetches *)
Definition fetch_point (l : list N) (s1 : sc strin) : Prop :=
  exists n k s s',
    reach (scan_fuel l) n (init_sc {| si_chars := l; si_look := 0 |}) s /\ (n < 4 * scan_fuel l + 20)%nat
    /\ sc_stream_end s = false /\ sc_token_available s = false
    /\ rounds (scan_fuel l) k s s' /\ (k < scan_fuel l)%nat /\ need_more s' = Ok (true, s1).

Lemma fetch_point_RInv l s1 : fetch_point l s1 -> RInv s1.
Proof.
  intros (n & k & s & s' & HR & _ & _ & _ & HRo & _ & HN).
  destruct (RInv_init l) as [[A B] C].
  destruct (reach_RInv _ _ _ _ HR A C) as [A1 [B1 _]].
  apply (need_more_RInv s' true s1); [|exact HN]. apply (rounds_RInv _ _ _ _ HRo). split; assumption.
Qed.

Lemma fetch_point_error_rejected l s1 e m :
  fetch_point l s1 -> fetch_next_token str_ops (scan_fuel l) s1 = Err e m -> snd (run_str l) <> PDone.
Proof.
  intros (n & k & s & s' & HR & Hn & HE & HA & HRo & Hk & HN) HFe.
  exact (reachable_round_error_rejected l n k s s' s1 e m HR Hn HE HA HRo Hk HN HFe).
Qed.

(* what the invariants give in flow context *)
Lemma chain_sorted l : forall top, DocScan.chain top l -> sorted_from top l = true.
Proof.
  induction l as [|i r IH]; intros top H; cbn in H |- *.
  - apply Z.eqb_eq. exact H.
  - destruct H as [A B]. apply andb_true_intro. split; [apply Z.ltb_lt; exact A | apply IH; exact B].
Qed.

Lemma RInv_flow s : RInv s -> sc_flow_level s <> 0 ->
  sc_stream_start s = true /\ sorted_from (sc_indent s) (sc_indents s) = true
  /\ (exists top rest, sc_ifms s = top :: rest)
  /\ Forall (ScanSafeStrWP.sk_in_range s) (sc_sks s).
Proof.
  intros [(A1 & A2 & A3) [(B1 & B2 & B3) _]] HFL.
  assert (ES : sc_stream_start s = true).
  { destruct (sc_stream_start s); [reflexivity|]. destruct A1 as (_ & E & _). contradiction. }
  split; [exact ES|]. split; [apply chain_sorted; exact A2|]. split; [|exact B3].
  destruct (sc_ifms s) as [|top rest]; [cbn in A3; lia | eauto].
Qed.

(* EVERY text: if, anywhere in its scan, the scanner is about to fetch in flow context and stands on a  *)
(* closer that is not of the kind of the innermost open flow collection, the text is rejected *)
Theorem wrong_closer_anywhere_rejected l s1 (seq : bool) :
  fetch_point l s1 ->
  sc_flow_level s1 <> 0 ->
  nth 0 (chars_of s1) 0 = (if seq then 93 else 125) ->
  is_mapping_level (hd ImPossible (sc_ifms s1)) = seq ->
  (sc_indent s1 <= Z.of_N (m_col (sc_mark s1)))%Z ->
  snd (run_str l) <> PDone.
Proof.
  intros HP HFL HC HM HI.
  destruct (RInv_flow s1 (fetch_point_RInv l s1 HP) HFL) as (ES & HS & (top & rest & Hi) & _).
  rewrite Hi in HM. cbn [hd] in HM.
  apply (fetch_point_error_rejected l s1 (if seq then 47 else 48) (sc_mark s1) HP).
  apply (mismatched_flow_closer_fetch_rejected _ s1 seq top rest ES); try assumption.
  unfold scan_fuel. lia.
Qed.

(* EVERY text: if, anywhere in its scan, the scanner is about to fetch the ':' of a pair in flow context, the innermost
   flow collection is a sequence outside an explicit key (Possible / Inside), and the pending key candidate began on an
   earlier line or more than 1024 characters before the ':', the text is rejected *)
Theorem flow_pair_key_limit_anywhere_rejected l s1 key r b rest :
  fetch_point l s1 ->
  sc_flow_level s1 <> 0 ->
  chars_of s1 = 58 :: b :: rest -> is_blank_or_breakz b = true ->
  sc_sks s1 = key :: r -> sk_possible key = true ->
  (hd ImMapping (sc_ifms s1) = ImPossible \/ hd ImMapping (sc_ifms s1) = ImInside) ->
  (m_line (sk_mark key) < m_line (sc_mark s1) \/ m_index (sk_mark key) + SIMPLE_KEY_MAX < m_index (sc_mark s1)) ->
  (sc_indent s1 <= Z.of_N (m_col (sc_mark s1)))%Z ->
  snd (run_str l) <> PDone.
Proof.
  intros HP HFL HC Hb Hk Hp Htop Hlim HI.
  destruct (RInv_flow s1 (fetch_point_RInv l s1 HP) HFL) as (ES & HS & (top & rest' & Hi) & HR).
  rewrite Hi in Htop. cbn [hd] in Htop.
  rewrite Hk in HR. inversion HR as [|x y Hrange _]; subst. destruct (Hrange Hp) as [R1 R2].
  apply (fetch_point_error_rejected l s1 98 (sc_mark s1) HP).
  rewrite (fetch_next_token_flow _ s1 ES); [ | unfold scan_fuel; lia | exact HFL
            | rewrite HC; cbn [nth]; repeat split; discriminate
            | rewrite HC; cbn [nth]; split; [discriminate | right; repeat split; discriminate] ].
  set (s4 := ahead (set_sks (sc_sks s1) (looked (looked s1 1) 1)) 4).
  rewrite (dispatch_value _ s4 b rest HC Hb HI).
  apply (flow_pair_key_limit_rejected _ s4 key r top rest'); try assumption.
  - left. exact HFL.
  - change (length (sc_tokens s4)) with (length (sc_tokens s1)). change (sc_tokens_parsed s4) with (sc_tokens_parsed s1). lia.
Qed.

(* not vacuous: in the scan of "[ a }" NL the state at the '}' is such a fetch point (one token delivered, two rounds of the
   refill done: '[' and 'a'), in flow context, with the sequence level on top *)
Definition wrong_closer_example : list N := [91; 32; 97; 32; 125; 10].
Lemma wrong_closer_fetch_point :
  exists s1, fetch_point wrong_closer_example s1 /\ sc_flow_level s1 <> 0 /\ nth 0 (chars_of s1) 0 = 125
             /\ is_mapping_level (hd ImPossible (sc_ifms s1)) = false
             /\ (sc_indent s1 <= Z.of_N (m_col (sc_mark s1)))%Z.
Proof.
  eexists. split.
  - exists 1%nat, 2%nat. eexists. eexists. unfold wrong_closer_example.
    refine (conj _ (conj _ (conj _ (conj _ (conj _ (conj _ _)))))).
    + reach_step. apply reach_0.
    + apply Nat.ltb_lt. vm_compute. reflexivity.
    + reflexivity.
    + reflexivity.
    + eapply rounds_S.
      * eval_exact.
      * eval_exact.
      * eapply rounds_S.
        -- eval_exact.
        -- eval_exact.
        -- apply rounds_0.
    + apply Nat.ltb_lt. vm_compute. reflexivity.
    + eval_exact.
  - cbn. repeat split; try discriminate; try lia.
Qed.
