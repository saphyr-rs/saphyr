(* The Scanner iterator ([next_token], [scan_all] of Model/SFetch.v) for any input: what holds of it whatever the
   characters are. *)
From Coq Require Import List.
Import ListNotations.
Require Import Parser SBase SFetch.

Section Run.
Context {I : Type} (ops : InputOps I) (F : nat).

(* after the StreamEnd token the iterator is exhausted *)
Lemma next_token_ended (s : sc I) : sc_stream_end s = true -> next_token ops F s = Ok (None, s).
Proof. intros H. unfold next_token, bind, get. rewrite H. reflexivity. Qed.

Lemma scan_all_ended n (s : sc I) acc : sc_stream_end s = true -> fst (scan_all ops F n s acc) = rev acc.
Proof. intros H. destruct n as [|n]; cbn [scan_all]; [|rewrite (next_token_ended s H)]; reflexivity. Qed.

(* the accumulator is only prepended *)
Lemma scan_all_acc n : forall (s : sc I) acc,
  scan_all ops F n s acc = (rev acc ++ fst (scan_all ops F n s []), snd (scan_all ops F n s [])).
Proof.
  induction n as [|n IH]; intros s acc; cbn [scan_all]; [cbn [fst snd rev]; rewrite app_nil_r; reflexivity|].
  destruct (next_token ops F s) as [[[t|] s']|e k|p|]; cbn [fst snd rev]; rewrite ?app_nil_r; try reflexivity.
  rewrite (IH s' (t :: acc)), (IH s' [t]). cbn [fst snd rev app]. rewrite <- app_assoc. reflexivity.
Qed.
End Run.
