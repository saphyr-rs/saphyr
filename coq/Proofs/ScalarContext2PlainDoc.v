(* C04 in document context, part 4: PLAIN scalars that end the input, text -> tokens -> events, as an instance of
   [ctx_scalar_end] (Proofs/ScalarContextFlow.v), on top of [scan_plain_scalar_ws] (Proofs/ScalarContext2Plain.v:
   scan_plain_scalar with the input that is left) and the frame theorem. *)
From Coq Require Import List NArith ZArith Bool Arith Lia.
Import ListNotations.
Require Import Parser SBase SPrim SFetch Pipe Drivers TokenGrammar FlowText ScanFlowProofs ScanBlockProofs ScanFrame FlowFold FlowScalarProofs PlainScalarProofs ScalarContext ScalarContextQuoted ScalarContextFlow ScalarContext2Plain ScalarContext2PlainSib.
Open Scope N_scope.
Open Scope mon_scope.

(* the dispatch of fetch_next_token on the first character of a plain scalar *)
Lemma doc_marker_st s0 c l m w x site : (4 <= l)%nat ->
  (assert_buflen str_ops 4 site ;;; d <- next_3_are str_ops x x x ;;
   if d then c3 <- peekn str_ops 3 ;; ret (is_blank_or_breakz c3) else ret false) (st_with s0 c l m w)
  = Ok (((nth 0 c 0 =? x) && (nth 1 c 0 =? x) && (nth 2 c 0 =? x)) && is_blank_or_breakz (nth 3 c 0), st_with s0 c l m w).
Proof.
  intros Hl.
  assert (A : forall k site', (k <= 4)%nat -> assert_buflen str_ops k site' (st_with s0 c l m w) = Ok (tt, st_with s0 c l m w)).
  { intros k site' Hk. unfold assert_buflen. cbn [buflen str_ops sc_in st_with si_look].
    replace (Nat.ltb l k) with false by (symmetry; apply Nat.ltb_ge; lia). reflexivity. }
  mstep (A 4%nat site (Nat.le_refl 4)). unfold next_3_are, peek. rewrite !bind_assoc. mstep (A 3%nat 104%N ltac:(lia)). rewrite !bind_assoc.
  mstep (peekn_st 0 s0 c l m w). rewrite !bind_assoc. mstep (peekn_st 1 s0 c l m w). rewrite !bind_assoc.
  mstep (peekn_st 2 s0 c l m w). rewrite (bind_Ok (ret _) _ _ _ _ eq_refl).
  destruct ((nth 0 c 0 =? x) && (nth 1 c 0 =? x) && (nth 2 c 0 =? x)); [mstep (peekn_st 3 s0 c l m w)|]; reflexivity.
Qed.

Lemma doc_ind_false c : doc_ind c = false ->
  ((nth 0 c 0 =? 45) && (nth 1 c 0 =? 45) && (nth 2 c 0 =? 45)) && is_blank_or_breakz (nth 3 c 0) = false
  /\ ((nth 0 c 0 =? 46) && (nth 1 c 0 =? 46) && (nth 2 c 0 =? 46)) && is_blank_or_breakz (nth 3 c 0) = false.
Proof.
  unfold doc_ind. destruct (is_blank_or_breakz (nth 3 c 0)); [|rewrite !andb_false_r; split; reflexivity].
  cbn [andb]. intros H. apply orb_false_elim in H as [H1 H2]. rewrite H1, H2. split; reflexivity.
Qed.

Lemma c_indicator_facts x : c_indicator x = false ->
  (x =? 45) = false /\ (x =? 63) = false /\ (x =? 58) = false /\ (x =? 44) = false /\ (x =? 91) = false /\ (x =? 93) = false
  /\ (x =? 123) = false /\ (x =? 125) = false /\ (x =? 35) = false /\ (x =? 38) = false /\ (x =? 42) = false /\ (x =? 33) = false
  /\ (x =? 124) = false /\ (x =? 62) = false /\ (x =? 39) = false /\ (x =? 34) = false /\ (x =? 37) = false /\ (x =? 64) = false
  /\ (x =? 96) = false.
Proof.
  unfold c_indicator. cbn [existsb]. intros H.
  repeat match goal with H : _ || _ = false |- _ => apply orb_false_elim in H as [? ?] end. repeat split; assumption.
Qed.

(* the first character of a plain scalar in block context: no indicator, or - ? : in front of a non-space character *)
Definition plain_head (x : N) (cs : list N) : Prop :=
  c_indicator x = false \/ ((x = 45 \/ x = 63 \/ x = 58) /\ is_blank_or_breakz (nth 0 cs 0) = false).

Lemma rest_plain_s F (s : sc strin) x cs :
  si_chars (sc_in s) = x :: cs -> (4 <= si_look (sc_in s))%nat -> sc_flow_level s = 0 ->
  (Z.of_N (m_col (sc_mark s)) <? sc_indent s)%Z = false ->
  (m_col (sc_mark s) = 0 -> doc_ind (x :: cs) = false) ->
  plain_head x cs ->
  fnt_rest F s = fetch_plain_scalar str_ops F s.
Proof.
  intros Hch Hl Hfl Hcol Hdoc Hhd.
  pose proof (st_with_id s) as Es. rewrite Hch in Es. rewrite Es. clear Es.
  set (l := si_look (sc_in s)) in *. set (m := sc_mark s) in *. set (w := sc_lws s).
  unfold fnt_rest. mstep (get_st s (x :: cs) l m w). unfold peek. mstep (peekn_st 0 s (x :: cs) l m w). cbn [nth sc_mark st_with].
  assert (H37 : (x =? 37) = false).
  { destruct Hhd as [Hi|[[-> |[-> | ->]] _]]; [|reflexivity..]. apply c_indicator_facts in Hi. tauto. }
  rewrite H37. cbn [negb andb].
  assert (E1 : (if m_col m =? 0 then next_is_document_start str_ops else ret false) (st_with s (x :: cs) l m w)
               = Ok (false, st_with s (x :: cs) l m w)).
  { destruct (N.eqb_spec (m_col m) 0) as [E|E]; [|reflexivity]. unfold next_is_document_start. rewrite doc_marker_st by exact Hl.
    rewrite (proj1 (doc_ind_false _ (Hdoc E))). reflexivity. }
  mstep E1. rewrite andb_true_r. cbn [negb].
  assert (E2 : (if (m_col m =? 0) && true then next_is_document_end str_ops else ret false) (st_with s (x :: cs) l m w)
               = Ok (false, st_with s (x :: cs) l m w)).
  { rewrite andb_true_r. destruct (N.eqb_spec (m_col m) 0) as [E|E]; [|reflexivity]. unfold next_is_document_end. rewrite doc_marker_st by exact Hl.
    rewrite (proj2 (doc_ind_false _ (Hdoc E))). reflexivity. }
  mstep E2. rewrite andb_false_r. cbv iota. cbn [sc_indent st_with]. rewrite Hcol. cbv iota.
  mstep (peekn_st 0 s (x :: cs) l m w). mstep (peekn_st 1 s (x :: cs) l m w). cbn [nth sc_flow_level st_with].
  rewrite Hfl. change (0 <? 0) with false. cbn [negb andb].
  destruct Hhd as [Hi|[Hx Hbz]].
  - apply c_indicator_facts in Hi.
    destruct Hi as (H45 & H63 & H58 & H44 & H91 & H93 & H123 & H125 & H35 & H38 & H42 & H33 & H124 & H62 & H39 & H34 & _ & H64 & H96).
    rewrite H45, H63, H58, H44, H91, H93, H123, H125, H38, H42, H33, H124, H62, H39, H34, H37, H64, H96. cbn [andb orb]. reflexivity.
  - rewrite Hbz. destruct Hx as [-> |[-> | ->]]; reflexivity.
Qed.

(* fetch_plain_scalar on a presentation of the specification *)
Definition p_text (first : list N) (more : list (brk_layout * list N)) (rest : list N) : list N := plain_render first more ++ rest.
Definition p_wf (n : nat) (first : list N) (more : list (brk_layout * list N)) : bool := plain_layout_wf false n first more.
Definition p_tok (first : list N) (more : list (brk_layout * list N)) : tok := TScalar Plain (plain_text first more).

(* the first character *)
Lemma plain_first_facts n first more : p_wf n first more = true ->
  exists x t, first = x :: t /\ node_head x /\ (forall after, plain_head x (t ++ after)).
Proof.
  unfold p_wf, plain_layout_wf. intros Hwf. apply andb_prop in Hwf as [Hwf _]. apply andb_prop in Hwf as [Hf Hl].
  destruct first as [|x t]; [discriminate Hf|]. exists x, t. split; [reflexivity|].
  unfold plain_line_wf in Hl. apply andb_prop in Hl as [Hl Hch]. apply andb_prop in Hl as [H0 _]. apply negb_true_iff in H0.
  cbn [plain_line_chars_wf] in Hch. apply andb_prop in Hch as [Hc _].
  destruct (char_facts false 0 x (hd 0 t) Hc H0) as [Hbz [_ H35]].
  destruct (blankz_facts x Hbz) as (H32 & H9 & H10 & H13 & Hz).
  assert (Hhd : forall after, plain_head x (t ++ after)).
  { intros after. unfold plain_first_wf in Hf. apply orb_prop in Hf as [Hf|Hf]; [left; apply negb_true_iff, Hf|].
    right. apply andb_prop in Hf as [Hx Hs]. split.
    - apply orb_prop in Hx as [Hx|Hx]; [apply orb_prop in Hx as [Hx|Hx]|]; apply N.eqb_eq in Hx; auto.
    - destruct t as [|y t']; [discriminate Hs|]. cbn [hd app nth] in *. exact (proj1 (ns_plain_safe_facts _ _ Hs)). }
  assert (Hn35 : (x =? 35) = false).
  { destruct (N.eqb_spec x 35) as [E|E]; [|reflexivity]. exfalso. specialize (H35 E). discriminate H35. }
  assert (Hfl : is_flow x = false).
  { destruct (Hhd []) as [Hi|[[-> |[-> | ->]] _]]; [|reflexivity..]. apply c_indicator_facts in Hi.
    destruct Hi as (_ & _ & _ & H44 & H91 & H93 & H123 & H125 & _). unfold is_flow. rewrite H44, H91, H93, H123, H125. reflexivity. }
  repeat split; try assumption. unfold is_break. rewrite H10, H13. reflexivity.
Qed.

Lemma fetch_plain_case F n first more rest l mk q adj ska k ind inds tp lws :
  p_wf n first more = true -> ws_only rest = true ->
  (fst (unroll_nb inds ind) < Z.of_nat n)%Z -> (fst (unroll_nb inds ind) < Z.of_N (m_col mk))%Z ->
  (lws = true -> m_col mk = 0 -> marker_at_col0 [] first = false) ->
  (2 * length (p_text first more rest) + 10 <= F)%nat ->
  ((ind =? Z.of_N (m_col mk))%Z = true -> inds <> []) ->
  exists l' mk' sp ska' lws' ind' inds',
    fetch_plain_scalar str_ops F (mkb (p_text first more rest) l mk q adj ska k ind inds tp false lws)
    = Ok (tt, mkb [] l' mk' (q ++ [(sp, TScalar Plain (plain_text first more))]) adj ska' (saved ska k ind inds tp q mk) ind' inds' tp false lws')
    /\ nbrel (ind, inds) (ind', inds').
Proof.
  intros Hwf Hws Hn Hcol Hmk HF Hreq.
  destruct (scan_plain_scalar_ws F n first more rest (mkb (p_text first more rest) l mk q adj false (saved ska k ind inds tp q mk) ind inds tp false lws)
              Hwf eq_refl Hws Hn Hcol Hmk HF) as (sp & s' & E & _ & Hin).
  destruct (frame_b _ _ _ _ _ _ _ _ _ _ _ _ s' (Fr_scan_plain_scalar str_ops F _ _ s' E))
    as (cs' & l' & mk' & ska' & lws' & ind' & inds' & -> & Hnb & _).
  cbn in Hin. subst cs'.
  exists l', mk', sp, ska', lws', ind', inds'. split; [|exact Hnb].
  exact (fetch_scan_b _ push_tok false _ _ _ _ _ _ _ _ _ _ _ _ _ Hreq E).
Qed.

Lemma p_text_cons first more rest x t : first = x :: t -> p_text first more rest = x :: t ++ src_more more ++ rest.
Proof. intros ->. unfold p_text, plain_render. fold (src_more more). rewrite <- app_assoc. reflexivity. Qed.

Lemma plain_doc_ind n first more rest x t : p_wf n first more = true -> ws_only rest = true -> first = x :: t ->
  marker_at_col0 [] first = false -> doc_ind (x :: t ++ src_more more ++ rest) = false.
Proof.
  intros Hwf Hws -> Hmk. unfold p_wf, plain_layout_wf in Hwf. apply andb_prop in Hwf as [Hwf Hmore]. apply andb_prop in Hwf as [_ Hline].
  set (S0 := mkb [] 128 (mkm 0 0 0) [] 0 false dummy_key 0%Z [] 0 false false).
  assert (Hch : plain_line_chars_wf (0 <? sc_flow_level S0) 0 (x :: t) = true).
  { unfold plain_line_wf in Hline. apply andb_prop in Hline. tauto. }
  change (x :: t ++ src_more more ++ rest) with ((x :: t) ++ src_more more ++ rest).
  apply (no_marker_no_doc_ind S0 (x :: t) (src_more more ++ rest) Hch Hmk).
  apply (stops_src_more 0 S0 (mkm 0 0 0) 128 ltac:(lia) n rest (ws_only_plain_follower _ _ rest Hws)). exact Hmore.
Qed.

(* continuation lines indented by n; the scalar right of the indentation of the enclosing block collection (the one-column
   raise behind "key:" is taken back by unroll_non_block_indents); at column 0 the first line is no document marker *)
Definition plain_side (n : nat) (first : list N) (ind : Z) (inds : list indent_rec) (col : N) : Prop :=
  (Z.of_N col <? ind)%Z = false /\ (fst (unroll_nb inds ind) < Z.of_nat n)%Z /\ (fst (unroll_nb inds ind) < Z.of_N col)%Z
  /\ (col = 0 -> marker_at_col0 [] first = false).

Lemma plain_fetches F n first more rest :
  p_wf n first more = true -> ws_only rest = true -> (2 * length (p_text first more rest) + 10 <= F)%nat ->
  fetches F (p_text first more rest) [] (p_tok first more) (plain_side n first).
Proof.
  intros Hwf Hws HF l mk q adj ska k ind inds tp lws Hl (Hcol & Hn & Hlt & Hmk) Hreq.
  destruct (plain_first_facts n first more Hwf) as (x & t & Efirst & _ & Hhd).
  rewrite (rest_plain_s F (mkb (p_text first more rest) l mk q adj ska k ind inds tp false lws) x (t ++ src_more more ++ rest)
             (p_text_cons first more rest x t Efirst) Hl eq_refl Hcol
             (fun Ec => plain_doc_ind n first more rest x t Hwf Hws Efirst (Hmk Ec)) (Hhd _)).
  destruct (fetch_plain_case F n first more rest l mk q adj ska k ind inds tp lws Hwf Hws Hn Hlt (fun _ => Hmk) HF Hreq)
    as (l' & mk' & sp & ska' & lws' & ind' & inds' & E & Hnb).
  exists l', mk', sp, adj, ska', lws', ind', inds'. split; assumption.
Qed.

(* a plain scalar that ends the input, as the node at a token position / behind "key: " *)
Lemma plain_end_tok F s n first more rest c cols :
  at_tok s (p_text first more rest) c cols -> (fst (stk cols) < Z.of_nat c)%Z -> (fst (stk cols) < Z.of_nat n)%Z ->
  p_wf n first more = true -> ws_only rest = true -> (c = 0%nat -> marker_at_col0 [] first = false) ->
  (2 * length (p_text first more rest) + 10 <= F)%nat ->
  ends_with F s (p_tok first more :: repeat TBlockEnd (length cols) ++ [TStreamEnd]).
Proof.
  intros Hat Hlt Hn Hwf Hws Hmk HF.
  pose proof (plain_fetches F n first more rest Hwf Hws HF) as Hfe.
  destruct (plain_first_facts n first more Hwf) as (x & t & Efirst & (Hfo & Hnz & _) & _).
  rewrite (p_text_cons first more rest x t Efirst) in Hat, Hfe.
  rewrite <- (proj2 (grounded_stk cols ltac:(apply Forall_forall; auto))).
  apply (scalar_end F s _ _ _ _ _ (plain_side n first) (tok_before_node F s x _ c cols Hat Hlt Hfo Hnz ltac:(lia)) ltac:(lia) Hfe);
    [|discriminate].
  intros mk ->. unfold plain_side. rewrite unroll_nb_stk, nat_N_Z. repeat split; [apply Z.ltb_ge; lia | exact Hn | exact Hlt | intros Ec; apply Hmk; lia].
Qed.

Lemma plain_end_below F s n first more rest top rest0 :
  at_below s (32 :: p_text first more rest) (top :: rest0) -> (Z.of_N top < Z.of_nat n)%Z ->
  p_wf n first more = true -> ws_only rest = true ->
  (2 * length (p_text first more rest) + 10 <= F)%nat ->
  ends_with F s (p_tok first more :: repeat TBlockEnd (length (top :: rest0)) ++ [TStreamEnd]).
Proof.
  intros Hat Hn Hwf Hws HF.
  pose proof (plain_fetches F n first more rest Hwf Hws HF) as Hfe.
  destruct (plain_first_facts n first more Hwf) as (x & t & Efirst & (Hfo & Hnz & _) & _).
  rewrite (p_text_cons first more rest x t Efirst) in Hat, Hfe.
  rewrite <- (proj2 (grounded_below top rest0)).
  apply (scalar_end F s _ _ _ _ _ (plain_side n first) (below_before_node F s x _ top rest0 Hat Hfo Hnz ltac:(lia)) ltac:(lia) Hfe);
    [|discriminate].
  intros mk Hc. unfold plain_side. rewrite unroll_nb_below. cbn [stk fst]. repeat split; [apply Z.ltb_ge; lia | exact Hn | lia | lia].
Qed.

(* the whole scanner *)
Lemma scan_plain_place p n first more rest :
  place_ok p -> p_wf n first more = true -> ws_only rest = true -> side_at (plain_side n first) p ->
  exists toks, scan_str (in_place p (p_text first more rest)) = (toks, SEnded) /\
               map snd toks = wrap false false (around p [p_tok first more]).
Proof.
  intros Hp Hwf Hws Hside.
  pose proof (plain_fetches (2 * length (in_place p (p_text first more rest)) + 10) n first more rest Hwf Hws) as Hfe.
  destruct (plain_first_facts n first more Hwf) as (x & t & Efirst & Hh & _).
  rewrite (p_text_cons first more rest x t Efirst) in *.
  apply (ctx_scalar_end p x _ (p_tok first more) (plain_side n first) Hp Hh ltac:(discriminate)); [|exact Hside].
  apply Hfe. destruct p; cbn [in_place]; rewrite ?app_length; cbn [length]; lia.
Qed.

(* T-top: the document is one plain scalar (any continuation indentation n; the first line is no document marker) *)
Theorem scan_plain_top n first more rest :
  p_wf n first more = true -> ws_only rest = true -> marker_at_col0 [] first = false ->
  exists toks, scan_str (p_text first more rest) = (toks, SEnded) /\
               map snd toks = wrap false false [p_tok first more].
Proof.
  intros Hwf Hws Hmk. apply (scan_plain_place Top n first more rest I Hwf Hws).
  repeat split; [cbn; lia..|intros _; exact Hmk].
Qed.

(* T-entry: "- " in front, continuation lines indented by n >= 1 *)
Theorem scan_plain_entry n first more rest :
  p_wf n first more = true -> ws_only rest = true -> (1 <= n)%nat ->
  exists toks, scan_str (45 :: 32 :: p_text first more rest) = (toks, SEnded) /\
               map snd toks = wrap false false [TBlockSequenceStart; TBlockEntry; p_tok first more; TBlockEnd].
Proof.
  intros Hwf Hws Hn. apply (scan_plain_place Entry n first more rest I Hwf Hws).
  repeat split; [cbn; lia..|discriminate].
Qed.

(* T-value: "key: " in front, continuation lines indented by n >= 1 (scan_plain_scalar compares with the indentation of the
   mapping: the one-column raise behind "key:" is taken back by unroll_non_block_indents) *)
Theorem scan_plain_value kw n first more rest :
  key_ok kw = true -> p_wf n first more = true -> ws_only rest = true -> (1 <= n)%nat ->
  exists toks, scan_str (kw ++ 58 :: 32 :: p_text first more rest) = (toks, SEnded) /\
               map snd toks = wrap false false [TBlockMappingStart; TKey; TScalar Plain kw; TValue; p_tok first more; TBlockEnd].
Proof.
  intros Hkw Hwf Hws Hn. apply (scan_plain_place (Value kw) n first more rest Hkw Hwf Hws).
  intros c Hc. repeat split; [apply Z.ltb_ge; lia | cbn; lia | cbn; lia | lia].
Qed.

(* text -> events *)
Definition p_node (first : list N) (more : list (brk_layout * list N)) : ltree := LScalar no_props Plain (plain_text first more).

Theorem run_plain_top n first more rest :
  p_wf n first more = true -> ws_only rest = true -> marker_at_col0 [] first = false ->
  map fst (fst (run_str (p_text first more rest)))
  = [EStreamStart; EDocumentStart false; EScalar (plain_text first more) Plain 0 None; EDocumentEnd; EStreamEnd]
  /\ snd (run_str (p_text first more rest)) = PDone.
Proof.
  intros Hwf Hws Hmk.
  exact (run_of_scan _ (p_node first more) (scan_plain_top n first more rest Hwf Hws Hmk) eq_refl eq_refl ltac:(cbn; lia)).
Qed.

Theorem run_plain_entry n first more rest :
  p_wf n first more = true -> ws_only rest = true -> (1 <= n)%nat ->
  map fst (fst (run_str (45 :: 32 :: p_text first more rest)))
  = [EStreamStart; EDocumentStart false; ESequenceStart 0 None; EScalar (plain_text first more) Plain 0 None; ESequenceEnd;
     EDocumentEnd; EStreamEnd]
  /\ snd (run_str (45 :: 32 :: p_text first more rest)) = PDone.
Proof.
  intros Hwf Hws Hn.
  exact (run_of_scan _ (LBSeq no_props [p_node first more]) (scan_plain_entry n first more rest Hwf Hws Hn) eq_refl eq_refl ltac:(cbn; lia)).
Qed.

Theorem run_plain_value kw n first more rest :
  key_ok kw = true -> p_wf n first more = true -> ws_only rest = true -> (1 <= n)%nat ->
  map fst (fst (run_str (kw ++ 58 :: 32 :: p_text first more rest)))
  = [EStreamStart; EDocumentStart false; EMappingStart 0 None; EScalar kw Plain 0 None;
     EScalar (plain_text first more) Plain 0 None; EMappingEnd; EDocumentEnd; EStreamEnd]
  /\ snd (run_str (kw ++ 58 :: 32 :: p_text first more rest)) = PDone.
Proof.
  intros Hkw Hwf Hws Hn.
  exact (run_of_scan _ (LBMap no_props [(true, lword kw, (true, p_node first more))])
           (scan_plain_value kw n first more rest Hkw Hwf Hws Hn) eq_refl eq_refl ltac:(cbn; lia)).
Qed.
