(* The scanner over the BUFFERED input (any capacity >= 8) against the scanner over the STRING input: one relational
   weakest-precondition calculus [rwpG strict N0] for the two readings of "computes the same thing".
   In both, a run of the STRING side that ends in OutOfFuel or Panic closes the goal, and so does a Panic of the
   buffered side (excluded separately by ScanSafeTop.v); if both runs end properly (a value or an error) the values /
   states satisfy the postcondition, or the errors are the same error at the same marker.
   * [strict = false] (ScanRel.v, value level): OutOfFuel of the buffered side closes the goal as well - fuel is
     partial correctness.
   * [strict = true] (ScanFuelBuf.v, fuel transfer): OutOfFuel of the buffered side is NOT an escape - where the string
     run ends properly the buffered run, given the same fuel, ends in the same way.  Then the calculus also carries
     the bound [length (rem1 s1) <= N0] on the string side's remaining text (N0 = the length of the whole input at
     the top): the loops that are NOT in lockstep (chunk refresh of plain_chunk every cap - 1 characters, buffered
     loop + raw path of the block-scalar content line, the wide path of skip_block_scalar_indent, skip_spaces_to ..
     check_buf) need an absolute bound on the buffered side's work, which [2 * N0 + 6 <= F] provides
     ([rwp_bound] hands the bound to a proof).
   Loops in lockstep use the same fuel on both sides: the string side's [oof] closes the base case ([rwp_oof_l]).
   The base case of a loop that is not in lockstep is the buffered side's [oof]: [rwp_oof_r] closes it once the
   fuel hypothesis (which holds under [strict = true]) is refuted.
   [ScanRel.rwp_pair] and [ScanFuelBuf.rwpN_pair] tie the two readings to the calculi [rwp] / [rwpN] of those files. *)
From Coq Require Import List NArith ZArith Bool Arith Lia.
Import ListNotations.
Require Import Parser SBase SPrim SDir SScalar SFetch SBuf InputRefine.
Local Open Scope nat_scope.

Notation st1 := (sc strin).
Notation st2 := (sc bufin).
Notation M1 := (@M strin).
Notation M2 := (@M bufin).

(* everything but the input *)
Definition erase {I} (s : sc I) : sc unit :=
  {| sc_in := tt; sc_mark := sc_mark s; sc_tokens := sc_tokens s;
     sc_stream_start := sc_stream_start s; sc_stream_end := sc_stream_end s; sc_adjacent := sc_adjacent s;
     sc_ska := sc_ska s; sc_sks := sc_sks s; sc_indent := sc_indent s; sc_indents := sc_indents s;
     sc_flow_level := sc_flow_level s; sc_tokens_parsed := sc_tokens_parsed s;
     sc_token_available := sc_token_available s; sc_lws := sc_lws s; sc_ifms := sc_ifms s |}.

(* the state relation: same skeleton, and the buffered input holds exactly the string input's remaining characters *)
Definition SR (s1 : st1) (s2 : st2) : Prop := Rel (sc_in s1) (sc_in s2) /\ erase s1 = erase s2.

Definition bl2 (s : st2) : nat := length (b_buf (sc_in s)).
Definition rem1 (s : st1) : list chr := si_chars (sc_in s).
Definition rn1 (s : st1) (i : nat) : chr := nth i (rem1 s) 0%N.

Lemma erase_fields {I J} (s : sc I) (t : sc J) : erase s = erase t ->
  sc_mark s = sc_mark t /\ sc_tokens s = sc_tokens t /\ sc_stream_start s = sc_stream_start t
  /\ sc_stream_end s = sc_stream_end t /\ sc_adjacent s = sc_adjacent t /\ sc_ska s = sc_ska t
  /\ sc_sks s = sc_sks t /\ sc_indent s = sc_indent t /\ sc_indents s = sc_indents t
  /\ sc_flow_level s = sc_flow_level t /\ sc_tokens_parsed s = sc_tokens_parsed t
  /\ sc_token_available s = sc_token_available t /\ sc_lws s = sc_lws t
  /\ sc_ifms s = sc_ifms t.
Proof. unfold erase. intros H. inversion H. repeat split; assumption. Qed.

Lemma erase_set_in {I} (i : I) (s : sc I) : erase (set_in i s) = erase s.
Proof. reflexivity. Qed.

Section RelCalc.
Variable cap : nat.
Hypothesis cap_ge : 8 <= cap.
Variable strict : bool.
(* the bound on the string side's remaining text (the length of the whole input, at the top) *)
Variable N0 : nat.
Notation sops := str_ops.
Notation bops := (buf_ops cap).

(* the bound, carried by the strict calculus only *)
Definition bounded (s1 : st1) : Prop := if strict then length (rem1 s1) <= N0 else True.
(* OutOfFuel of the buffered side *)
Definition oof_r : Prop := if strict then False else True.

Definition rwpG {A1 A2} (m1 : M1 A1) (m2 : M2 A2) (Q : A1 -> st1 -> A2 -> st2 -> Prop) (s1 : st1) (s2 : st2) : Prop :=
  bounded s1 ->
  match m1 s1 with
  | Panic _ => True
  | OutOfFuel => True
  | Ok (a1, t1) => match m2 s2 with
                   | Ok (a2, t2) => bounded t1 /\ Q a1 t1 a2 t2
                   | Err _ _ => False
                   | Panic _ => True
                   | OutOfFuel => oof_r
                   end
  | Err e1 k1 => match m2 s2 with
                 | Err e2 k2 => e1 = e2 /\ k1 = k2
                 | Ok _ => False
                 | Panic _ => True
                 | OutOfFuel => oof_r
                 end
  end.
Notation rwp := rwpG.

Lemma bounded_le t1 s1 : length (rem1 t1) <= length (rem1 s1) -> bounded s1 -> bounded t1.
Proof. unfold bounded. destruct strict; [apply Nat.le_trans|trivial]. Qed.
Lemma bounded_strict s1 : bounded s1 -> strict = true -> length (rem1 s1) <= N0.
Proof. unfold bounded. intros B ->. exact B. Qed.

(* the usual shape of a postcondition: equal values *)
Definition Qe {A} (P : A -> st1 -> st2 -> Prop) : A -> st1 -> A -> st2 -> Prop :=
  fun a1 t1 a2 t2 => a1 = a2 /\ P a1 t1 t2.

Lemma rwp_ret {A} (a1 a2 : A) (Q : A -> st1 -> A -> st2 -> Prop) s1 s2 : Q a1 s1 a2 s2 -> rwp (ret a1) (ret a2) Q s1 s2.
Proof. intros H B. cbn. auto. Qed.
Lemma rwp_bind {A1 A2 B1 B2} (m1 : M1 A1) (m2 : M2 A2) (f1 : A1 -> M1 B1) (f2 : A2 -> M2 B2)
  (Q : B1 -> st1 -> B2 -> st2 -> Prop) s1 s2 :
  rwp m1 m2 (fun a1 t1 a2 t2 => rwp (f1 a1) (f2 a2) Q t1 t2) s1 s2 -> rwp (bind m1 f1) (bind m2 f2) Q s1 s2.
Proof.
  unfold rwpG, bind. intros H B. specialize (H B).
  destruct (m1 s1) as [[a1 t1]|e1 k1|n1|]; auto.
  - destruct (m2 s2) as [[a2 t2]|e2 k2|n2|]; try contradiction.
    + destruct H as [Bt H]. exact (H Bt).
    + destruct (f1 a1 t1) as [[b1 u1]|? ?|?|]; auto.
    + destruct (f1 a1 t1) as [[b1 u1]|? ?|?|]; auto.
  - destruct (m2 s2) as [[a2 t2]|e2 k2|n2|]; try contradiction; auto.
Qed.
(* equal-valued bind: the continuation is the same function on both sides *)
Lemma rwp_bind_e {A B1 B2} (m1 : M1 A) (m2 : M2 A) (f1 : A -> M1 B1) (f2 : A -> M2 B2) (Q : B1 -> st1 -> B2 -> st2 -> Prop) s1 s2 :
  rwp m1 m2 (Qe (fun a t1 t2 => rwp (f1 a) (f2 a) Q t1 t2)) s1 s2 -> rwp (bind m1 f1) (bind m2 f2) Q s1 s2.
Proof.
  intros H. apply rwp_bind. unfold rwpG in *. intros B. specialize (H B).
  destruct (m1 s1) as [[a1 t1]|e1 k1|n1|]; auto.
  destruct (m2 s2) as [[a2 t2]|e2 k2|n2|]; auto. destruct H as [Bt [-> H]]. split; [exact Bt|exact H].
Qed.
Lemma rwp_mono {A1 A2} (m1 : M1 A1) (m2 : M2 A2) (Q Q' : A1 -> st1 -> A2 -> st2 -> Prop) s1 s2 :
  rwp m1 m2 Q s1 s2 -> (forall a1 t1 a2 t2, Q a1 t1 a2 t2 -> Q' a1 t1 a2 t2) -> rwp m1 m2 Q' s1 s2.
Proof.
  unfold rwpG. intros H HQ B. specialize (H B). destruct (m1 s1) as [[a1 t1]|e1 k1|n1|]; auto.
  destruct (m2 s2) as [[a2 t2]|e2 k2|n2|]; auto. destruct H as [Bt H]. split; auto.
Qed.
(* the bound on the string side's remaining text is available to every proof *)
Lemma rwp_bound {A1 A2} (m1 : M1 A1) (m2 : M2 A2) (Q : A1 -> st1 -> A2 -> st2 -> Prop) s1 s2 :
  (bounded s1 -> rwp m1 m2 Q s1 s2) -> rwp m1 m2 Q s1 s2.
Proof. intros H B. exact (H B B). Qed.
Lemma rwp_fail {A1 A2} site k1 k2 (Q : A1 -> st1 -> A2 -> st2 -> Prop) s1 s2 :
  k1 = k2 -> rwp (@fail strin A1 site k1) (@fail bufin A2 site k2) Q s1 s2.
Proof. intros -> B. unfold fail. auto. Qed.
Lemma rwp_panic_r {A1 A2} site (m1 : M1 A1) (Q : A1 -> st1 -> A2 -> st2 -> Prop) s1 s2 : rwp m1 (@panic bufin A2 site) Q s1 s2.
Proof. intros B. unfold panic. destruct (m1 s1) as [[a1 t1]|e1 k1|n1|]; exact I. Qed.
Lemma rwp_oof_l {A1 A2} (m2 : M2 A2) (Q : A1 -> st1 -> A2 -> st2 -> Prop) s1 s2 : rwp (@oof strin A1) m2 Q s1 s2.
Proof. intros B. exact I. Qed.
(* the buffered side is out of fuel: an escape unless the calculus is strict *)
Lemma rwp_oof_r {A1 A2} (m1 : M1 A1) (Q : A1 -> st1 -> A2 -> st2 -> Prop) s1 s2 :
  strict <> true -> rwp m1 (@oof bufin A2) Q s1 s2.
Proof.
  intros NS B. unfold oof. assert (O : oof_r) by (unfold oof_r; destruct strict; [destruct (NS eq_refl)|exact I]).
  destruct (m1 s1) as [[a1 t1]|e1 k1|n1|]; auto.
Qed.
Lemma rwp_panic_l {A1 A2} site (m2 : M2 A2) (Q : A1 -> st1 -> A2 -> st2 -> Prop) s1 s2 : rwp (@panic strin A1 site) m2 Q s1 s2.
Proof. intros B. exact I. Qed.
Lemma rwp_get (Q : st1 -> st1 -> st2 -> st2 -> Prop) s1 s2 : Q s1 s1 s2 s2 -> rwp get get Q s1 s2.
Proof. intros H B. cbn. auto. Qed.
Lemma rwp_gets {A1 A2} (f1 : st1 -> A1) (f2 : st2 -> A2) (Q : A1 -> st1 -> A2 -> st2 -> Prop) s1 s2 : Q (f1 s1) s1 (f2 s2) s2 -> rwp (gets f1) (gets f2) Q s1 s2.
Proof. intros H B. cbn. auto. Qed.
(* [put] / [modify]: the new string-side state must not hold more text than the old one *)
Lemma rwp_put t1 t2 (Q : unit -> st1 -> unit -> st2 -> Prop) s1 s2 :
  length (rem1 t1) <= length (rem1 s1) -> Q tt t1 tt t2 -> rwp (put t1) (put t2) Q s1 s2.
Proof. intros L H B. cbn. split; [exact (bounded_le _ _ L B)|exact H]. Qed.
Lemma rwp_modify f1 f2 (Q : unit -> st1 -> unit -> st2 -> Prop) s1 s2 :
  length (rem1 (f1 s1)) <= length (rem1 s1) -> Q tt (f1 s1) tt (f2 s2) -> rwp (modify f1) (modify f2) Q s1 s2.
Proof. intros L H B. cbn. split; [exact (bounded_le _ _ L B)|exact H]. Qed.

(* unfolding: what a related pair of results means when the string side ended properly *)
Lemma rwp_elim {A1 A2} (m1 : M1 A1) (m2 : M2 A2) (Q : A1 -> st1 -> A2 -> st2 -> Prop) s1 s2 :
  rwp m1 m2 Q s1 s2 -> bounded s1 ->
  match m1 s1, m2 s2 with
  | Ok (a1, t1), Ok (a2, t2) => bounded t1 /\ Q a1 t1 a2 t2
  | Err e1 k1, Err e2 k2 => e1 = e2 /\ k1 = k2
  | Ok _, Err _ _ => False
  | Err _ _, Ok _ => False
  | Ok _, OutOfFuel => oof_r
  | Err _ _, OutOfFuel => oof_r
  | _, _ => True
  end.
Proof.
  unfold rwpG. intros H B. specialize (H B).
  destruct (m1 s1) as [[a1 t1]|e1 k1|n1|]; destruct (m2 s2) as [[a2 t2]|e2 k2|n2|]; auto.
Qed.

(* the state relation under skeleton updates *)
Lemma SR_mark s1 s2 : SR s1 s2 -> sc_mark s1 = sc_mark s2.
Proof. intros [_ H]. apply erase_fields in H. tauto. Qed.
Lemma SR_rel s1 s2 : SR s1 s2 -> Rel (sc_in s1) (sc_in s2).
Proof. intros [H _]. exact H. Qed.
Lemma SR_erase s1 s2 : SR s1 s2 -> erase s1 = erase s2.
Proof. intros [_ H]. exact H. Qed.
Lemma SR_intro s1 s2 : Rel (sc_in s1) (sc_in s2) -> erase s1 = erase s2 -> SR s1 s2.
Proof. split; assumption. Qed.

(* generic: both sides apply "the same" skeleton function, described on erased states *)
Lemma SR_lift (g : sc unit -> sc unit) (f1 : st1 -> st1) (f2 : st2 -> st2) s1 s2 :
  SR s1 s2 ->
  sc_in (f1 s1) = sc_in s1 -> sc_in (f2 s2) = sc_in s2 ->
  erase (f1 s1) = g (erase s1) -> erase (f2 s2) = g (erase s2) -> SR (f1 s1) (f2 s2).
Proof. intros [R E] I1 I2 E1 E2. split; [rewrite I1, I2; exact R | rewrite E1, E2, E; reflexivity]. Qed.

(* input primitives *)
Lemma rel_nth_buf s b n : Rel s b -> n < length (b_buf b) -> nth n (b_buf b) 0%N = nth n (si_chars s) 0%N.
Proof.
  intros [k [E _]] Hn.
  transitivity (nth n (si_chars s ++ repeat 0%N k) 0%N); [|apply nth_app_pad].
  rewrite <- E. symmetry. apply app_nth1. exact Hn.
Qed.

Lemma rel_look s b n : Rel s b -> n <= cap ->
  match lookahead bops n b with
  | Ok b' => Rel s b' /\ n <= length (b_buf b') /\ length (b_buf b) <= length (b_buf b')
  | _ => False
  end.
Proof.
  intros [k [E Hk]] Hn. cbn [lookahead buf_ops].
  destruct (Nat.leb n (length (b_buf b))) eqn:E1.
  - apply Nat.leb_le in E1. split; [exists k; auto|lia].
  - destruct (Nat.ltb cap n) eqn:E2; [apply Nat.ltb_lt in E2; lia|].
    destruct (take_pad (n - length (b_buf b)) (b_rest b)) as [a r] eqn:ET.
    destruct (take_pad_spec _ _ _ _ ET) as [La [k' [Ek' Hk']]]. apply Nat.leb_gt in E1.
    cbn [b_buf b_rest]. split; [|rewrite app_length; lia].
    destruct (Nat.eq_dec k 0) as [->|Hk0].
    + exists k'. cbn [b_buf b_rest]. split; [|exact Hk']. rewrite <- app_assoc, Ek', app_assoc, E. cbn. rewrite app_nil_r. reflexivity.
    + assert (Hr : b_rest b = []) by (apply Hk; lia). rewrite Hr in *.
      exists (k + k'). cbn [b_buf b_rest]. split.
      * rewrite <- app_assoc, Ek'. cbn [app]. rewrite app_nil_r in E. rewrite E.
        rewrite <- app_assoc, <- repeat_app. reflexivity.
      * intros _. destruct (Nat.eq_dec k' 0) as [->|Hk'0]; [|apply Hk'; lia].
        cbn in Ek'. apply app_eq_nil in Ek'. tauto.
Qed.

Lemma rwp_look n (Q : unit -> st1 -> unit -> st2 -> Prop) s1 s2 :
  SR s1 s2 -> n <= cap ->
  (forall t1 t2, SR t1 t2 -> rem1 t1 = rem1 s1 -> erase t1 = erase s1 -> n <= bl2 t2 -> bl2 s2 <= bl2 t2 -> Q tt t1 tt t2) ->
  rwp (look sops n) (look bops n) Q s1 s2.
Proof.
  intros [R E] Hn HQ B. unfold look. pose proof (rel_look _ _ n R Hn) as HL.
  destruct (lookahead bops n (sc_in s2)) as [b'| | |]; try tauto. destruct HL as (R' & L1 & L2).
  cbn [lookahead str_ops]. split; [exact B|]. apply HQ; unfold bl2, rem1; cbn; auto.
  split; [cbn; destruct R' as [k Hk]; exists k; exact Hk | rewrite !erase_set_in; exact E].
Qed.

Lemma rwp_peekn n (Q : chr -> st1 -> chr -> st2 -> Prop) s1 s2 :
  SR s1 s2 -> n < bl2 s2 -> Q (rn1 s1 n) s1 (rn1 s1 n) s2 -> rwp (peekn sops n) (peekn bops n) Q s1 s2.
Proof.
  intros [R E] Hn HQ B. unfold peekn. cbn [peek_nth buf_ops str_ops]. unfold bl2 in Hn.
  destruct (nth_error (b_buf (sc_in s2)) n) as [c|] eqn:EN; [|apply nth_error_None in EN; lia].
  split; [exact B|].
  assert (H1 : c = rn1 s1 n).
  { transitivity (nth n (b_buf (sc_in s2)) 0%N); [symmetry; exact (nth_error_nth _ _ 0%N EN)|].
    exact (rel_nth_buf _ _ _ R Hn). }
  rewrite H1. exact HQ.
Qed.
Lemma rwp_peek (Q : chr -> st1 -> chr -> st2 -> Prop) s1 s2 :
  SR s1 s2 -> 1 <= bl2 s2 -> Q (rn1 s1 0) s1 (rn1 s1 0) s2 -> rwp (SPrim.peek sops) (SPrim.peek bops) Q s1 s2.
Proof. intros H1 H2 H3. apply rwp_peekn; auto. Qed.

Lemma rwp_look_ch (Q : chr -> st1 -> chr -> st2 -> Prop) s1 s2 :
  SR s1 s2 ->
  (forall t1 t2, SR t1 t2 -> rem1 t1 = rem1 s1 -> erase t1 = erase s1 -> 1 <= bl2 t2 -> bl2 s2 <= bl2 t2 ->
                 Q (rn1 t1 0) t1 (rn1 t1 0) t2) ->
  rwp (look_ch sops) (look_ch bops) Q s1 s2.
Proof.
  intros HS HQ. unfold look_ch. apply rwp_bind. apply rwp_look; [exact HS|lia|].
  intros t1 t2 HS' H1 H2 H3 H4. apply rwp_peek; auto.
Qed.

Lemma rwp_in_skip (Q : unit -> st1 -> unit -> st2 -> Prop) s1 s2 :
  SR s1 s2 -> 1 <= bl2 s2 ->
  (forall t1 t2, SR t1 t2 -> rem1 t1 = tl (rem1 s1) -> erase t1 = erase s1 -> bl2 t2 = bl2 s2 - 1 -> Q tt t1 tt t2) ->
  rwp (in_skip sops) (in_skip bops) Q s1 s2.
Proof.
  intros [R E] Hn HQ B. unfold in_skip, modify.
  split; [apply (bounded_le _ s1); [unfold rem1; cbn; destruct (si_chars (sc_in s1)); cbn; lia|exact B]|].
  apply HQ; unfold bl2, rem1 in *; cbn; auto.
  - split; [cbn [sc_in set_in upd]; apply (rel_skip1 cap); [exact R|destruct (b_buf (sc_in s2)); cbn in *; [lia|congruence]]
           | rewrite !erase_set_in; exact E].
  - destruct (b_buf (sc_in s2)); cbn in *; lia.
Qed.

Lemma rel_skipn s b n : Rel s b -> n <= length (b_buf b) ->
  Rel {| si_chars := skipn n (si_chars s); si_look := si_look s |} {| b_buf := skipn n (b_buf b); b_rest := b_rest b |}.
Proof.
  revert s b. induction n as [|n IH]; intros s b R Hn.
  - cbn [skipn]. destruct R as [k Hk]. exists k. exact Hk.
  - assert (Hne : b_buf b <> []) by (destruct (b_buf b); cbn in *; [lia|congruence]).
    pose proof (rel_skip1 cap s b R Hne) as R1. cbn [skip1 str_ops buf_ops] in R1.
    assert (L : n <= length (tl (b_buf b))) by (destruct (b_buf b); cbn in *; lia).
    specialize (IH _ _ R1 L). cbn [si_chars si_look b_buf b_rest] in IH.
    replace (skipn (S n) (si_chars s)) with (skipn n (tl (si_chars s))) by (destruct (si_chars s); [destruct n|]; reflexivity).
    replace (skipn (S n) (b_buf b)) with (skipn n (tl (b_buf b))) by (destruct (b_buf b); [destruct n|]; reflexivity).
    exact IH.
Qed.

Lemma rwp_in_skip_n n (Q : unit -> st1 -> unit -> st2 -> Prop) s1 s2 :
  SR s1 s2 -> n <= bl2 s2 ->
  (forall t1 t2, SR t1 t2 -> rem1 t1 = skipn n (rem1 s1) -> erase t1 = erase s1 -> bl2 t2 = bl2 s2 - n -> Q tt t1 tt t2) ->
  rwp (in_skip_n sops n) (in_skip_n bops n) Q s1 s2.
Proof.
  intros [R E] Hn HQ B. unfold in_skip_n. cbn [skip_n buf_ops str_ops]. unfold bl2 in *.
  destruct (Nat.ltb (length (b_buf (sc_in s2))) n) eqn:E1; [apply Nat.ltb_lt in E1; lia|].
  split; [apply (bounded_le _ s1); [unfold rem1; cbn; rewrite skipn_length; lia|exact B]|].
  apply HQ; unfold rem1; cbn; auto.
  - split; [cbn [sc_in set_in upd]; apply rel_skipn; assumption | rewrite !erase_set_in; exact E].
  - rewrite skipn_length. reflexivity.
Qed.

(* with an empty buffer the unread rest IS the string input's remaining text *)
Lemma rel_empty_buf s b : Rel s b -> b_buf b = [] -> b_rest b = si_chars s.
Proof.
  intros [k [E Hk]] H0. rewrite H0 in E. cbn in E. destruct k as [|k].
  - cbn in E. rewrite app_nil_r in E. exact E.
  - assert (Hr : b_rest b = []) by (apply Hk; lia). rewrite Hr in E. symmetry in E. apply app_eq_nil in E.
    destruct E as [_ E]. discriminate E.
Qed.

Lemma rwp_raw_read (Q : option chr -> st1 -> option chr -> st2 -> Prop) s1 s2 :
  SR s1 s2 -> bl2 s2 = 0 ->
  (forall c t1 t2, SR t1 t2 -> erase t1 = erase s1 ->
     match c with
     | Some x => rem1 s1 = x :: rem1 t1 /\ is_breakz x = false /\ bl2 t2 = 0
     | None => rem1 t1 = rem1 s1 /\ bl2 t2 <= 1 /\ (bl2 t2 = 0 -> rem1 s1 = [])
               /\ match rem1 s1 with [] => True | x :: _ => is_breakz x = true end
     end -> Q c t1 c t2) ->
  rwp (raw_read sops) (raw_read bops) Q s1 s2.
Proof.
  intros [R E] H0 HQ B. unfold raw_read. cbn [raw_read_non_breakz buf_ops str_ops]. unfold bl2 in *.
  assert (Hb : b_buf (sc_in s2) = []) by (destruct (b_buf (sc_in s2)); [reflexivity|discriminate]).
  pose proof (rel_empty_buf _ _ R Hb) as Hr. rewrite Hr.
  destruct (si_chars (sc_in s1)) as [|c r] eqn:EC.
  - split; [apply (bounded_le _ s1); [unfold rem1; cbn; rewrite ?EC; cbn; lia|exact B]|]. apply HQ.
    + split; [exact R | rewrite !erase_set_in; exact E].
    + rewrite erase_set_in. reflexivity.
    + unfold rem1. cbn [sc_in set_in upd]. rewrite EC, H0. repeat split; auto.
  - destruct (is_breakz c) eqn:EB.
    + rewrite Hb. cbn [length]. destruct (Nat.leb cap 0) eqn:E0; [apply Nat.leb_le in E0; lia|].
      split; [apply (bounded_le _ s1); [unfold rem1; cbn; rewrite ?EC; cbn; lia|exact B]|].
      apply HQ.
      * split; [|rewrite !erase_set_in; exact E]. cbn [sc_in set_in upd]. exists 0.
        cbn [b_buf b_rest repeat app]. rewrite app_nil_r, EC. split; [reflexivity|lia].
      * rewrite erase_set_in. reflexivity.
      * unfold rem1. cbn [sc_in set_in upd b_buf app length]. rewrite EC. repeat split; auto. intros HH; discriminate HH.
    + split; [apply (bounded_le _ s1); [unfold rem1; cbn; rewrite ?EC; cbn; lia|exact B]|]. apply HQ.
      * split; [|rewrite !erase_set_in; exact E]. cbn [sc_in set_in upd]. exists 0.
        cbn [b_buf b_rest repeat app si_chars]. rewrite Hb, app_nil_r. split; [reflexivity|lia].
      * rewrite erase_set_in. reflexivity.
      * unfold rem1. cbn [sc_in set_in upd b_buf si_chars]. rewrite EC, Hb. repeat split; auto.
Qed.

(* the ONE place where the two sides see different values: the buffered length *)
Lemma rwp_buf_is_empty (Q : bool -> st1 -> bool -> st2 -> Prop) s1 s2 :
  Q (Nat.eqb (si_look (sc_in s1)) 0) s1 (Nat.eqb (bl2 s2) 0) s2 -> rwp (buf_is_empty sops) (buf_is_empty bops) Q s1 s2.
Proof. intros H B. cbn. split; [exact B|exact H]. Qed.

Lemma rwp_assert_buflen n site (Q : unit -> st1 -> unit -> st2 -> Prop) s1 s2 :
  n <= bl2 s2 -> Q tt s1 tt s2 -> rwp (assert_buflen sops n site) (assert_buflen bops n site) Q s1 s2.
Proof.
  intros Hn HQ B. unfold assert_buflen. cbn [buflen buf_ops str_ops]. unfold bl2 in Hn.
  destruct (Nat.ltb (length (b_buf (sc_in s2))) n) eqn:E; [apply Nat.ltb_lt in E; lia|].
  destruct (Nat.ltb (si_look (sc_in s1)) n); auto.
Qed.


(* one-sided steps (for loops that are not in lockstep: chunk refreshes, raw paths) *)
Lemma rwp_step_l {A B1 B2} (m : M1 A) (f1 : A -> M1 B1) (m2 : M2 B2) (Q : B1 -> st1 -> B2 -> st2 -> Prop) s1 s2 a t1 :
  m s1 = Ok (a, t1) -> length (rem1 t1) <= length (rem1 s1) -> rwp (f1 a) m2 Q t1 s2 -> rwp (bind m f1) m2 Q s1 s2.
Proof. intros Hm L H B. unfold rwpG, bind in *. rewrite Hm. apply H. exact (bounded_le _ _ L B). Qed.
Lemma rwp_step_r {A B1 B2} (m : M2 A) (m1 : M1 B1) (f2 : A -> M2 B2) (Q : B1 -> st1 -> B2 -> st2 -> Prop) s1 s2 a t2 :
  m s2 = Ok (a, t2) -> rwp m1 (f2 a) Q s1 t2 -> rwp m1 (bind m f2) Q s1 s2.
Proof. intros Hm H B. unfold rwpG, bind in *. rewrite Hm. exact (H B). Qed.
(* the string side's lookahead only bumps its counter *)
Definition bump (n : nat) (s1 : st1) : st1 :=
  set_in {| si_chars := si_chars (sc_in s1); si_look := Nat.max (si_look (sc_in s1)) n |} s1.
Lemma look_str_ok n s1 : look sops n s1 = Ok (tt, bump n s1).
Proof. reflexivity. Qed.
Lemma SR_bump n s1 s2 : SR s1 s2 -> SR (bump n s1) s2.
Proof.
  intros [[k Hk] E]. split; [exists k; exact Hk | unfold bump; rewrite erase_set_in; exact E].
Qed.
Lemma rem1_bump n s1 : rem1 (bump n s1) = rem1 s1.
Proof. reflexivity. Qed.
Lemma erase_bump n s1 : erase (bump n s1) = erase s1.
Proof. reflexivity. Qed.
(* the buffered side's lookahead within the capacity succeeds and keeps the relation *)
Lemma look_buf_ok n s1 s2 : SR s1 s2 -> n <= cap ->
  exists t2, look bops n s2 = Ok (tt, t2) /\ SR s1 t2 /\ n <= bl2 t2 /\ bl2 s2 <= bl2 t2.
Proof.
  intros [R E] Hn. unfold look. pose proof (rel_look _ _ n R Hn) as HL.
  destruct (lookahead bops n (sc_in s2)) as [b'| | |]; try tauto. destruct HL as (R' & L1 & L2).
  eexists. split; [reflexivity|]. unfold bl2. cbn [sc_in set_in upd]. split; [|split; assumption].
  split; [exact R' | rewrite erase_set_in; exact E].
Qed.

(* ---------------- contracts (proved in the ScanPair*.v files) ----------------
   [rpost k]: equal values, related states, at least k characters buffered on the buffered side. *)
Definition rpost {A} (k : nat) : A -> st1 -> A -> st2 -> Prop := Qe (fun _ t1 t2 => SR t1 t2 /\ k <= bl2 t2).

Definition rel_skip_to_next_token : Prop := forall F s1 s2, SR s1 s2 ->
  rwp (skip_to_next_token sops F) (skip_to_next_token bops F) (rpost 1) s1 s2.
Definition rel_skip_ws_to_eol : Prop := forall F stb s1 s2, SR s1 s2 ->
  rwp (skip_ws_to_eol sops F stb) (skip_ws_to_eol bops F stb) (rpost 1) s1 s2.
Definition rel_skip_yaml_whitespace : Prop := forall F s1 s2, SR s1 s2 ->
  rwp (skip_yaml_whitespace sops F) (skip_yaml_whitespace bops F) (rpost 1) s1 s2.
Definition rel_skip_linebreak : Prop := forall s1 s2, SR s1 s2 -> 2 <= bl2 s2 ->
  rwp (skip_linebreak sops) (skip_linebreak bops) (rpost 0) s1 s2.
Definition rel_scan_directive : Prop := forall F s1 s2, SR s1 s2 -> 1 <= bl2 s2 ->
  rwp (scan_directive sops F) (scan_directive bops F) (rpost 0) s1 s2.
Definition rel_scan_tag : Prop := forall F s1 s2, SR s1 s2 ->
  rwp (scan_tag sops F) (scan_tag bops F) (rpost 0) s1 s2.
Definition rel_scan_anchor : Prop := forall F alias s1 s2, SR s1 s2 -> 1 <= bl2 s2 ->
  rwp (scan_anchor sops F alias) (scan_anchor bops F alias) (rpost 0) s1 s2.
Definition rel_scan_flow_scalar : Prop := forall F single s1 s2, SR s1 s2 -> 1 <= bl2 s2 ->
  rwp (scan_flow_scalar sops F single) (scan_flow_scalar bops F single) (rpost 0) s1 s2.
(* [2 * N0 + 6 <= F] is ScanFuel.fuel_ok at the whole input: a loop that may iterate once without consuming (the chunk
   refresh of plain_chunk, the wide path of skip_block_scalar_indent) needs two units of fuel per character, 6 is slack
   for the loop exits.  Only the two scalar scanners with non-lockstep loops need it. *)
Definition rel_scan_plain_scalar : Prop := forall F s1 s2, (strict = true -> 2 * N0 + 6 <= F) -> SR s1 s2 ->
  rwp (scan_plain_scalar sops F) (scan_plain_scalar bops F) (rpost 0) s1 s2.
Definition rel_scan_block_scalar : Prop := forall F literal s1 s2, (strict = true -> 2 * N0 + 6 <= F) -> SR s1 s2 -> 1 <= bl2 s2 ->
  rwp (scan_block_scalar sops F literal) (scan_block_scalar bops F literal) (rpost 0) s1 s2.

End RelCalc.
