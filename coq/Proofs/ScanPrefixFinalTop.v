(* C15, text level, final form: the composition theorem with the two natural side conditions only.

     closed_flow_of_accepted    an accepted text ends its scan at flow level 0: its tokens are bracket-balanced (C06) and the
                                scanner's flow level is exactly the bracket depth of the tokens produced
                                (ScanPrefixFinalFlow.v)
     text_composition_final     ends_with_break A, nonul A, run_str A and run_str B accepted  =>  run_str (A "...\n" B) is
                                accepted with the events of A - StreamEnd followed by the events of B - StreamStart, anchor
                                ids renumbered
   (any number of texts: ScanPrefixMany.v) *)
From Coq Require Import List NArith ZArith Bool Arith Lia.
Import ListNotations.
Require Import Parser SBase SPrim SDir SScalar SFetch Pipe C02run DocRun DocShift DocIndep DocIndepRun DocScan LazyScan.
Require Import ScanShift ScanShiftTop ScanShiftDoc ScanPrefixDoc ScanPrefixFinalDoc.
Require ScanPrefix ScanPrefixTop RejectProofs RejectScan ScanPrefixFinalFlow.
Local Open Scope nat_scope.

Lemma scan_last_eq F : forall n (s : bst), ScanPrefixTop.scan_last F n s = ScanPrefixFinalFlow.last_state sops F n s.
Proof.
  induction n as [|n IH]; intros s; [reflexivity|]. cbn [ScanPrefixTop.scan_last ScanPrefixFinalFlow.last_state].
  destruct (next_token sops F s) as [[[t|] s']| | |]; auto.
Qed.

Theorem closed_flow_of_accepted A evA : run_str A = (evA, PDone) -> closed_flow A.
Proof.
  intros HA. unfold closed_flow. rewrite scan_last_eq.
  destruct (accepted_tokens_wf A evA HA) as (ss & t & sps & ET & HSS & HNE).
  pose proof (accepted_scan_ended A evA HA) as HE.
  assert (HB : RejectProofs.flow_balanced (fst (str_scan A)) [] = true)
    by (apply (RejectScan.text_accepted_implies_balanced A); rewrite HA; reflexivity).
  rewrite ET in HB.
  apply (ScanPrefixFinalFlow.balanced_flow_level_zero sops (str_F A) (4 * str_F A + 20) _ ss t sps); auto.
  unfold str_scan in ET, HE.
  destruct (scan_all sops (str_F A) (4 * str_F A + 20) (init_sc {| si_chars := A; si_look := 0 |}) []) as [toks se].
  cbn [fst snd] in ET, HE. subst. reflexivity.
Qed.

Theorem text_composition_final A B evA evB :
  ends_with_break A -> nonul A ->
  run_str A = (evA, PDone) -> run_str B = (evB, PDone) ->
  exists evC, run_str (glue_text A B) = (evC, PDone)
              /\ evs_of evC = removelast (evs_of evA) ++ map (shift_ev (count_anchored (evs_of evA))) (tl (evs_of evB)).
Proof.
  intros HE HN HA HB. exact (text_composition_spanfree A B evA evB HE HN (closed_flow_of_accepted A evA HA) HA HB).
Qed.

Print Assumptions closed_flow_of_accepted.
Print Assumptions text_composition_final.
