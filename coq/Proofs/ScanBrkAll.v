(* C14, scanner + parser level: the character-level contracts (ScanBrkPrim/Dir/Flow/Plain/Block.v) plugged into the
   skeleton (ScanBrkFetch.v) and the pipeline theorems (ScanBrkTop.v), with the fuel exception discharged by
   ScanFuelAll.v (the string pipeline never runs out of its linear fuel, on any input).  Only instantiation here. *)
From Coq Require Import List NArith Bool.
Import ListNotations.
Require Import Parser SBase SFetch Pipe BreakProofs ScanBrk ScanBrkParse ScanBrkTop ScanBrkFetch ScanFuelAll.
Require ScanBrkDir ScanBrkFlow ScanBrkPlain ScanBrkBlock ScanRelTop ScanSafeStrTop.
Local Open Scope nat_scope.

Lemma next_token_brk md : brk_next_token md.
Proof.
  exact (next_token_ok md (ScanBrkDir.scan_directive_ok md) (ScanBrkDir.scan_tag_ok md) (ScanBrkFlow.scan_flow_scalar_ok md)
           (ScanBrkPlain.scan_plain_scalar_ok md) (ScanBrkBlock.scan_block_scalar_ok md)).
Qed.

Lemma scanner_brk md : brk_target md.
Proof. exact (brk_target_of_scan_all md (brk_scan_all_of_next_token md (next_token_brk md))). Qed.

(* an end of the pipeline that is neither fuel nor panic *)
Definition is_panic (e : pend) : Prop := match e with PPanic _ => True | _ => False end.

Lemma pend_bad_panic (x : list N) : ScanRelTop.pend_bad (snd (run_str x)) -> is_panic (snd (run_str x)).
Proof.
  intros H. pose proof (pipeline_never_out_of_fuel x) as NF.
  destruct (snd (run_str x)); cbn in *; try contradiction; try exact I; congruence.
Qed.

(* of the two ways a run can end badly only the panic is left *)
Lemma bad_is_panic (x y : list N) (P : Prop) :
  ScanRelTop.pend_bad (snd (run_str x)) \/ ScanRelTop.pend_bad (snd (run_str y)) \/ P ->
  is_panic (snd (run_str x)) \/ is_panic (snd (run_str y)) \/ P.
Proof. intros [B|[B|R]]; auto using pend_bad_panic. Qed.

(* the two substitutions: same events (kind, text, style, anchor id, tag) with spans that agree in line and column, and
   the same end (PDone, or the same error site at the same line and column) - unless one of the two runs panics *)
Lemma pipeline_crlf : forall x : list chr, nocr x ->
  is_panic (snd (run_str x)) \/ is_panic (snd (run_str (crlf x))) \/
  (Forall2 EVR (fst (run_str x)) (fst (run_str (crlf x))) /\ PER (snd (run_str x)) (snd (run_str (crlf x)))).
Proof. intros x Hx. apply bad_is_panic. exact (run_str_crlf_strong (next_token_brk CRLF) x Hx). Qed.

Lemma pipeline_cr : forall x : list chr, nocr x ->
  is_panic (snd (run_str x)) \/ is_panic (snd (run_str (cr x))) \/
  (Forall2 EVR (fst (run_str x)) (fst (run_str (cr x))) /\ PER (snd (run_str x)) (snd (run_str (cr x)))).
Proof. intros x Hx. apply bad_is_panic. exact (run_str_cr_strong (next_token_brk CR) x Hx). Qed.

(* with panic freedom of the string pipeline (ScanSafeStrTop.v) no exception is left *)
Lemma no_panic (x : list N) : ~ is_panic (snd (run_str x)).
Proof.
  intros H. destruct (snd (run_str x)) eqn:E; cbn in H; try contradiction.
  exact (ScanSafeStrTop.pipeline_never_panics_str x _ E).
Qed.

Lemma pipeline_crlf_total : forall x : list chr, nocr x ->
  Forall2 EVR (fst (run_str x)) (fst (run_str (crlf x))) /\ PER (snd (run_str x)) (snd (run_str (crlf x))).
Proof.
  intros x Hx. destruct (pipeline_crlf x Hx) as [B|[B|R]]; [destruct (no_panic _ B)|destruct (no_panic _ B)|exact R].
Qed.

Lemma pipeline_cr_total : forall x : list chr, nocr x ->
  Forall2 EVR (fst (run_str x)) (fst (run_str (cr x))) /\ PER (snd (run_str x)) (snd (run_str (cr x))).
Proof.
  intros x Hx. destruct (pipeline_cr x Hx) as [B|[B|R]]; [destruct (no_panic _ B)|destruct (no_panic _ B)|exact R].
Qed.
