(* C18 — the UTF-16 decoder model (Model/Decoders.v: u16_raw, both byte orders) meets the per-call
   specification of Proofs/DecoderLoop.v with respect to the one-shot specification utf16_next.

     fast16_spec     the fast path (copy_utf16_from / convert_unaligned_utf16_to_utf8) consumes characters of the
                     specification only, reports an unpaired surrogate exactly where the specification has a
                     malformed sequence of two bytes, and — when room for an astral character is left — stops
                     only at the end of the input, before a single trailing byte or before a final high surrogate
     u16_tail_*      the byte-wise state machine on those three tails
     u16_call_ok     the per-call specification                                                          *)
From Coq Require Import List NArith Bool Lia Arith.
Import ListNotations.
Require Import Consts Decode TagSpec EncodingSpec Decoders DecodeProofs DecoderLoop.
Open Scope N_scope.
Arguments N.add : simpl never.
Arguments N.sub : simpl never.
Arguments N.mul : simpl never.
Arguments N.div : simpl never.
Arguments N.modulo : simpl never.
Arguments N.eqb : simpl never.
Arguments N.ltb : simpl never.
Arguments N.leb : simpl never.
Arguments N.max : simpl never.
Arguments N.to_nat : simpl never.
Arguments N.of_nat : simpl never.

(* 1. Model and specification vocabulary *)
Lemma code_unit_unit_of : forall be a b, code_unit be a b = unit_of be a b.
Proof. reflexivity. Qed.

Lemma high_is_high : forall u, high_surrogate u = is_high u.
Proof.
  intros u. unfold high_surrogate, is_high.
  destruct (N.leb_spec 55296 u); cbn [andb]; [|reflexivity].
  destruct (N.ltb_spec u 56320); destruct (N.leb_spec u 56319); try reflexivity; lia.
Qed.

Lemma low_is_low : forall u, low_surrogate u = is_low u.
Proof.
  intros u. unfold low_surrogate, is_low.
  destruct (N.leb_spec 56320 u); cbn [andb]; [|reflexivity].
  destruct (N.ltb_spec u 57344); destruct (N.leb_spec u 57343); try reflexivity; lia.
Qed.

Lemma high_range : forall u, high_surrogate u = true -> 55296 <= u < 56320.
Proof.
  intros u H. unfold high_surrogate in H. apply andb_true_iff in H as [H1 H2].
  apply N.leb_le in H1. apply N.ltb_lt in H2. lia.
Qed.

Lemma low_range : forall u, low_surrogate u = true -> 56320 <= u < 57344.
Proof.
  intros u H. unfold low_surrogate in H. apply andb_true_iff in H as [H1 H2].
  apply N.leb_le in H1. apply N.ltb_lt in H2. lia.
Qed.

Lemma pair_astral : forall u v, high_surrogate u = true -> low_surrogate v = true -> surrogate_pair u v = astral u v.
Proof.
  intros u v Hu Hv. apply high_range in Hu. apply low_range in Hv. unfold surrogate_pair, astral. lia.
Qed.

Lemma high_not_small : forall u, high_surrogate u = true -> (u <? 128) = false.
Proof. intros u H. apply high_range in H. apply N.ltb_ge. lia. Qed.

Lemma small_not_surrogate : forall u, u < 128 -> high_surrogate u = false /\ low_surrogate u = false.
Proof.
  intros u H. unfold high_surrogate, low_surrogate.
  rewrite (proj2 (N.leb_gt 55296 u)) by lia. rewrite (proj2 (N.leb_gt 56320 u)) by lia. split; reflexivity.
Qed.

Lemma pair_len : forall u v, high_surrogate u = true -> low_surrogate v = true -> utf8_len (surrogate_pair u v) = 4.
Proof.
  intros u v Hu Hv. apply high_range in Hu. apply low_range in Hv. unfold utf8_len, surrogate_pair.
  rewrite (proj2 (N.ltb_ge _ 128)) by lia. rewrite (proj2 (N.ltb_ge _ 2048)) by lia.
  rewrite (proj2 (N.ltb_ge _ 65536)) by lia. reflexivity.
Qed.

(* the specification's first piece, case by case ([unit_of] and [code_unit] are convertible) *)
Ltac spec16 :=
  unfold utf16_next; cbv zeta;
  repeat match goal with |- context [unit_of ?be ?a ?b] => change (unit_of be a b) with (code_unit be a b) end;
  rewrite <- ?high_is_high, <- ?low_is_low.

Lemma next16_bmp : forall be b0 b1 tl, high_surrogate (code_unit be b0 b1) = false -> low_surrogate (code_unit be b0 b1) = false ->
    utf16_next be (b0 :: b1 :: tl) = PChar (code_unit be b0 b1) 2.
Proof. intros be b0 b1 tl Hh Hl. spec16. rewrite Hh, Hl. reflexivity. Qed.

Lemma next16_low : forall be b0 b1 tl, high_surrogate (code_unit be b0 b1) = false -> low_surrogate (code_unit be b0 b1) = true ->
    utf16_next be (b0 :: b1 :: tl) = PBad 2.
Proof. intros be b0 b1 tl Hh Hl. spec16. rewrite Hh, Hl. reflexivity. Qed.

Lemma next16_pair : forall be b0 b1 c0 c1 tl, high_surrogate (code_unit be b0 b1) = true -> low_surrogate (code_unit be c0 c1) = true ->
    utf16_next be (b0 :: b1 :: c0 :: c1 :: tl) = PChar (surrogate_pair (code_unit be b0 b1) (code_unit be c0 c1)) 4.
Proof. intros be b0 b1 c0 c1 tl Hh Hl. rewrite (pair_astral _ _ Hh Hl). spec16. rewrite Hh, Hl. reflexivity. Qed.

Lemma next16_unpaired : forall be b0 b1 c0 c1 tl, high_surrogate (code_unit be b0 b1) = true -> low_surrogate (code_unit be c0 c1) = false ->
    utf16_next be (b0 :: b1 :: c0 :: c1 :: tl) = PBad 2.
Proof. intros be b0 b1 c0 c1 tl Hh Hl. spec16. rewrite Hh, Hl. reflexivity. Qed.

Lemma next16_high_end : forall be b0 b1, high_surrogate (code_unit be b0 b1) = true -> utf16_next be [b0; b1] = PBad 2.
Proof. intros be b0 b1 Hh. spec16. rewrite Hh. reflexivity. Qed.

Lemma next16_high_odd : forall be b0 b1 c, high_surrogate (code_unit be b0 b1) = true -> utf16_next be [b0; b1; c] = PBad 3.
Proof. intros be b0 b1 c Hh. spec16. rewrite Hh. reflexivity. Qed.

Lemma utf16_next_size : forall be bs, bs <> [] -> 1 <= psize (utf16_next be bs) <= nlen bs.
Proof.
  intros be [|b0 [|b1 tl]] H; [congruence|unfold utf16_next; cbn [psize]; rewrite nlen_cons; lia|].
  unfold utf16_next. cbv zeta. rewrite !nlen_cons.
  destruct (is_high (unit_of be b0 b1)).
  - destruct tl as [|c0 [|c1 tl2]]; cbn [psize]; rewrite ?nlen_cons; try lia.
    destruct (is_low (unit_of be c0 c1)); cbn [psize]; lia.
  - destruct (is_low (unit_of be b0 b1)); cbn [psize]; lia.
Qed.

Lemma utf16_bad_small : forall be bs ml, utf16_next be bs = PBad ml -> ml <= 255.
Proof.
  intros be [|b0 [|b1 tl]] ml H; [inversion H; lia|inversion H; lia|].
  unfold utf16_next in H. cbv zeta in H.
  destruct (is_high (unit_of be b0 b1)).
  - destruct tl as [|c0 [|c1 tl2]]; try (inversion H; lia).
    destruct (is_low (unit_of be c0 c1)); inversion H; lia.
  - destruct (is_low (unit_of be b0 b1)); inversion H; lia.
Qed.

(* 2. The fast path *)
Definition tail_shape (be : bool) (rest : list N) : Prop :=
  rest = [] \/ (exists b, rest = [b]) \/
  (exists b0 b1 tl, rest = b0 :: b1 :: tl /\ high_surrogate (code_unit be b0 b1) = true /\
                    (tl = [] \/ exists c, tl = [c])).

Definition fast16_post (be : bool) (rem : list N) (spare : N) (cs : list N) (k : N) (err : bool) (rest : list N) : Prop :=
  exists k0, good_prefix (utf16_next be) rem cs k0 /\ text_len cs <= spare /\
    rest = skipn (N.to_nat k) rem /\
    (if err then k = k0 + 2 /\ k <= nlen rem /\ utf16_next be (skipn (N.to_nat k0) rem) = PBad 2
     else k = k0 /\ (4 <= spare - text_len cs -> tail_shape be rest)).

Lemma fast16_post_stop : forall be rem spare, (4 <= spare -> tail_shape be rem) -> fast16_post be rem spare [] 0 false rem.
Proof.
  intros be rem spare H. exists 0. split; [constructor|]. split; [cbn [text_len]; lia|]. split; [reflexivity|].
  split; [reflexivity|]. cbn [text_len]. rewrite N.sub_0_r. exact H.
Qed.

Lemma fast16_post_cons : forall be rem spare c sz cs1 n1 e1 r1,
    rem <> [] -> utf16_next be rem = PChar c sz -> utf8_len c <= spare ->
    fast16_post be (skipn (N.to_nat sz) rem) (spare - utf8_len c) cs1 n1 e1 r1 ->
    fast16_post be rem spare (c :: cs1) (sz + n1) e1 r1.
Proof.
  intros be rem spare c sz cs1 n1 e1 r1 Hne Hn Hl (k1 & Hg & Ht & Hr & He).
  pose proof (utf16_next_size be rem Hne) as [Hs1 Hs2]. rewrite Hn in Hs1, Hs2. cbn [psize] in Hs1, Hs2.
  exists (sz + k1). split; [apply gp_cons; assumption|]. split; [cbn [text_len]; lia|].
  split; [rewrite skipn_N_add; exact Hr|].
  destruct e1.
  - destruct He as (E1 & E2 & E3). rewrite nlen_skipn in E2. split; [lia|]. split; [lia|].
    rewrite skipn_N_add. exact E3.
  - destruct He as (E1 & E2). split; [lia|]. intros H. apply E2. cbn [text_len] in H. lia.
Qed.

Lemma fast16_post_err : forall be b0 b1 tl spare,
    utf16_next be (b0 :: b1 :: tl) = PBad 2 -> fast16_post be (b0 :: b1 :: tl) spare [] 2 true tl.
Proof.
  intros be b0 b1 tl spare H. exists 0. split; [constructor|]. split; [cbn [text_len]; lia|].
  split; [replace (N.to_nat 2) with 2%nat by lia; reflexivity|].
  split; [reflexivity|]. split; [rewrite !nlen_cons; lia|]. exact H.
Qed.

Lemma skipn_2 : forall (b0 b1 : N) tl, skipn (N.to_nat 2) (b0 :: b1 :: tl) = tl.
Proof. intros. replace (N.to_nat 2) with 2%nat by lia. reflexivity. Qed.

Lemma skipn_4 : forall (b0 b1 c0 c1 : N) tl, skipn (N.to_nat 4) (b0 :: b1 :: c0 :: c1 :: tl) = tl.
Proof. intros. replace (N.to_nat 4) with 4%nat by lia. reflexivity. Qed.

Lemma fast16_spec : forall be n rem, (length rem <= n)%nat -> forall ana spare cs k err rest,
    fast16 be ana rem spare = (cs, k, err, rest) -> fast16_post be rem spare cs k err rest.
Proof.
  intros be. induction n as [|n IH]; intros rem Hlen ana spare cs k err rest H.
  { destruct rem; [|cbn [length] in Hlen; lia]. cbn [fast16] in H. inversion H; subst.
    apply fast16_post_stop. intros _. left; reflexivity. }
  destruct rem as [|b0 [|b1 tl]].
  { cbn [fast16] in H. inversion H; subst. apply fast16_post_stop. intros _. left; reflexivity. }
  { cbn [fast16] in H. inversion H; subst. apply fast16_post_stop. intros _. right; left. eexists; reflexivity. }
  cbn [fast16] in H. cbv zeta in H. set (u := code_unit be b0 b1) in *.
  destruct (high_surrogate u) eqn:Hh.
  - (* high surrogate *)
    rewrite (high_not_small u Hh) in H.
    destruct tl as [|c0 [|c1 tl2]].
    + cbn [andb] in H. inversion H; subst. apply fast16_post_stop. intros _. right; right.
      exists b0, b1, []. split; [reflexivity|]. split; [exact Hh|]. left; reflexivity.
    + cbn [andb] in H. inversion H; subst. apply fast16_post_stop. intros _. right; right.
      exists b0, b1, [c0]. split; [reflexivity|]. split; [exact Hh|]. right. eexists; reflexivity.
    + cbn [andb] in H.
      destruct (N.ltb_spec spare 4) as [Hs|Hs].
      { inversion H; subst. apply fast16_post_stop. intros; lia. }
      set (v := code_unit be c0 c1) in *.
      destruct (low_surrogate v) eqn:Hl.
      * destruct (fast16 be true tl2 (spare - 4)) as [[[cs1 n1] e1] r1] eqn:E.
        inversion H; subst cs k err rest. clear H.
        pose proof (pair_len u v Hh Hl) as Hpl.
        apply fast16_post_cons.
        -- discriminate.
        -- apply next16_pair; assumption.
        -- lia.
        -- rewrite skipn_4, Hpl. apply (IH tl2 ltac:(cbn [length] in Hlen; lia) true). exact E.
      * inversion H; subst cs k err rest. clear H.
        apply fast16_post_err. apply next16_unpaired; assumption.
  - (* not a high surrogate *)
    rewrite andb_false_r in H.
    destruct (N.ltb_spec u 128) as [Hsmall|Hbig].
    + destruct (small_not_surrogate u Hsmall) as [_ Hlow].
      assert (Hstop : forall s0, (if ana then spare <? 4 else spare <? 1) = true -> 4 <= spare -> tail_shape be s0).
      { intros s0 Hc Hs. destruct ana; [apply N.ltb_lt in Hc|apply N.ltb_lt in Hc]; lia. }
      destruct (if ana then spare <? 4 else spare <? 1) eqn:Hc.
      { inversion H; subst. apply fast16_post_stop. apply Hstop. reflexivity. }
      destruct (fast16 be false tl (spare - 1)) as [[[cs1 n1] e1] r1] eqn:E.
      inversion H; subst cs k err rest. clear H.
      assert (Hsp : 1 <= spare) by (destruct ana; apply N.ltb_ge in Hc; lia).
      apply fast16_post_cons.
      * discriminate.
      * apply next16_bmp; assumption.
      * rewrite utf8_len_ascii by exact Hsmall. exact Hsp.
      * rewrite skipn_2, utf8_len_ascii by exact Hsmall.
        apply (IH tl ltac:(cbn [length] in Hlen; lia) false). exact E.
    + destruct (N.ltb_spec spare 4) as [Hs|Hs].
      { inversion H; subst. apply fast16_post_stop. intros; lia. }
      destruct (low_surrogate u) eqn:Hl.
      * inversion H; subst cs k err rest. clear H.
        apply fast16_post_err. apply next16_low; assumption.
      * destruct (fast16 be true tl (spare - utf8_len u)) as [[[cs1 n1] e1] r1] eqn:E.
        inversion H; subst cs k err rest. clear H.
        pose proof (utf8_len_range u) as Hlr.
        apply fast16_post_cons.
        -- discriminate.
        -- apply next16_bmp; assumption.
        -- lia.
        -- rewrite skipn_2. apply (IH tl ltac:(cbn [length] in Hlen; lia) true). exact E.
Qed.

(* 3. The byte-wise state machine on the three tails *)
Lemma neutral_new : u16_neutral u16_new = true.
Proof. reflexivity. Qed.

Lemma neutral_lead : forall ls b pb, u16_neutral (U16 ls (Some b) pb) = false.
Proof. intros ls b pb. unfold u16_neutral. cbn [w_surrogate w_lead_byte]. apply andb_false_r. Qed.

Lemma neutral_surrogate : forall u pb, u <> 0 -> u16_neutral (U16 u None pb) = false.
Proof.
  intros u pb H. unfold u16_neutral. cbn [w_surrogate w_lead_byte]. rewrite (proj2 (N.eqb_neq u 0) H). reflexivity.
Qed.

Ltac u16_iter :=
  cbn [u16_loop w_surrogate w_lead_byte w_pending_bmp];
  rewrite ?neutral_lead, ?neutral_new;
  cbn [andb negb text_len app];
  rewrite ?N.sub_0_r, ?N.add_0_r.

(* a single trailing byte *)
Lemma u16_tail_byte : forall f be b spare rd, (1 <= f)%nat -> 3 <= spare ->
    u16_loop f be true (U16 0 (Some b) false) [] spare rd = (u16_new, XMalformed 1 0 rd, []).
Proof.
  intros f be b spare rd Hf Hs. destruct f as [|f]; [lia|]. u16_iter.
  rewrite (proj2 (N.ltb_ge spare 3) Hs). rewrite N.eqb_refl. cbn [negb]. reflexivity.
Qed.

(* a final high surrogate, its first byte already read *)
Lemma u16_tail_high : forall f be h0 h1 spare rd, (2 <= f)%nat -> 4 <= spare ->
    high_surrogate (code_unit be h0 h1) = true ->
    u16_loop f be true (U16 0 (Some h0) false) [h1] spare rd = (u16_new, XMalformed 2 0 (rd + 1), []).
Proof.
  intros f be h0 h1 spare rd Hf Hs Hh. pose proof (high_range _ Hh) as Hr.
  destruct f as [|[|f]]; [lia|lia|]. u16_iter.
  rewrite (proj2 (N.ltb_ge spare 4) Hs). rewrite Hh. rewrite N.eqb_refl. cbn [negb].
  u16_iter. rewrite neutral_surrogate by lia. cbn [andb negb text_len app]. rewrite ?N.sub_0_r, ?N.add_0_r.
  rewrite (proj2 (N.ltb_ge spare 3)) by lia.
  rewrite (proj2 (N.eqb_neq (code_unit be h0 h1) 0)) by lia. cbn [negb app]. reflexivity.
Qed.

(* a final high surrogate followed by a single trailing byte *)
Lemma u16_tail_high_odd : forall f be h0 h1 c spare rd, (3 <= f)%nat -> 4 <= spare ->
    high_surrogate (code_unit be h0 h1) = true ->
    u16_loop f be true (U16 0 (Some h0) false) [h1; c] spare rd = (u16_new, XMalformed 3 0 (rd + 1 + 1), []).
Proof.
  intros f be h0 h1 c spare rd Hf Hs Hh. pose proof (high_range _ Hh) as Hr.
  destruct f as [|[|[|f]]]; [lia|lia|lia|]. u16_iter.
  rewrite (proj2 (N.ltb_ge spare 4) Hs). rewrite Hh. rewrite N.eqb_refl. cbn [negb].
  u16_iter. rewrite neutral_surrogate by lia. cbn [andb negb text_len]. rewrite ?N.sub_0_r, ?N.add_0_r.
  rewrite (proj2 (N.ltb_ge spare 4) Hs).
  u16_iter.
  rewrite (proj2 (N.ltb_ge spare 3)) by lia.
  rewrite (proj2 (N.eqb_neq (code_unit be h0 h1) 0)) by lia. cbn [negb app]. reflexivity.
Qed.

(* 4. The per-call specification *)
Definition u16_step (be : bool) (st : u16st) (src : list N) (spare : N) := u16_raw be true st src spare.
Definition u16_bnd (st : u16st) (rem : list N) : Prop := st = u16_new.

Lemma good_prefix_pos : forall next, (forall bs, bs <> [] -> 1 <= psize (next bs) <= nlen bs) ->
    forall rem c cs k, good_prefix next rem (c :: cs) k -> 1 <= k.
Proof.
  intros next Hsize rem c cs k H. inversion H as [|? ? k1 ? rd Hne Hn Hg]; subst.
  pose proof (Hsize rem Hne) as [H1 _]. rewrite Hn in H1. cbn [psize] in H1. lia.
Qed.

Lemma u16_call_ok : forall be st rem spare, u16_bnd st rem ->
    call_ok u16st (u16_step be) (utf16_next be) u16_bnd 4 st rem spare.
Proof.
  intros be st rem spare ->. unfold call_ok, u16_step, u16_raw. cbn [u16_new w_pending_bmp]. fold u16_new.
  cbn [u16_loop]. rewrite neutral_new. cbn [andb].
  destruct (N.leb_spec 4 spare) as [Hsp|Hsp].
  2:{ (* no room for the fast path *)
    cbn [text_len]. rewrite N.sub_0_r, N.add_0_r.
    destruct rem as [|b tl].
    - cbn [andb negb app text_len]. split; [lia|]. exists 0. split; [constructor|reflexivity].
    - rewrite (proj2 (N.ltb_lt spare 4) Hsp). cbn [app text_len]. split; [lia|]. exists 0. split; [constructor|].
      split; [reflexivity|]. split; [rewrite nlen_cons; lia|]. split; [lia|]. reflexivity. }
  destruct (fast16 be false rem spare) as [[[cs k] err] rest] eqn:Hfast.
  destruct (fast16_spec be (length rem) rem (Nat.le_refl _) false spare cs k err rest Hfast)
    as (k0 & Hg & Ht & Hr & He).
  pose proof (good_prefix_le (utf16_next be) (utf16_next_size be) _ _ _ Hg) as Hk0.
  destruct err.
  - (* an unpaired surrogate met by the fast path *)
    destruct He as (-> & Hle & Hbad). rewrite N.add_0_l.
    split; [exact Ht|]. exists k0. split; [exact Hg|]. split; [reflexivity|]. split; [lia|].
    split; [exact Hbad|]. split; [reflexivity|]. reflexivity.
  - destruct He as (-> & Hstop). rewrite N.add_0_l.
    destruct rest as [|b tl].
    + (* the whole input *)
      cbn [andb negb]. rewrite app_nil_r. split; [exact Ht|]. exists k0. split; [exact Hg|].
      assert (nlen (skipn (N.to_nat k0) rem) = 0) by (rewrite <- Hr; reflexivity).
      rewrite nlen_skipn in *. lia.
    + assert (Hlt : k0 < nlen rem).
      { assert (nlen (skipn (N.to_nat k0) rem) = nlen tl + 1) by (rewrite <- Hr; apply nlen_cons).
        rewrite nlen_skipn in *. lia. }
      assert (Hlen : length rem = (N.to_nat k0 + S (length tl))%nat).
      { assert (E : length (skipn (N.to_nat k0) rem) = S (length tl)) by (rewrite <- Hr; reflexivity).
        rewrite skipn_length in E. lia. }
      destruct (N.ltb_spec (spare - text_len cs) 4) as [Hfull|Hroom].
      * (* output full *)
        rewrite app_nil_r. split; [exact Ht|]. exists k0. split; [exact Hg|]. split; [reflexivity|].
        split; [exact Hlt|]. split; [|reflexivity].
        intros _. destruct cs as [|c cs]; [cbn [text_len] in Hfull; lia|].
        pose proof (good_prefix_pos _ (utf16_next_size be) _ _ _ _ Hg). lia.
      * (* one of the three tails *)
        cbn [u16_new w_lead_byte w_surrogate w_pending_bmp].
        destruct (Hstop Hroom) as [E|[(b' & E)|(b0 & b1 & tl' & E & Hh & Htl)]]; [discriminate| |].
        -- inversion E; subst b' tl. clear E.
           rewrite u16_tail_byte by (cbn [length] in Hlen; lia).
           rewrite app_nil_r. split; [exact Ht|]. exists k0. split; [exact Hg|]. split; [reflexivity|].
           split; [exact Hlt|]. rewrite <- Hr. split; [reflexivity|]. split; [reflexivity|]. reflexivity.
        -- inversion E; subst b0 tl. clear E.
           destruct Htl as [->|(c & ->)].
           ++ rewrite u16_tail_high by (cbn [length] in Hlen; try lia; assumption).
              rewrite app_nil_r. split; [exact Ht|]. exists k0. split; [exact Hg|]. split; [reflexivity|].
              split; [exact Hlt|]. rewrite <- Hr. split; [apply next16_high_end; exact Hh|].
              split; [lia|]. reflexivity.
           ++ rewrite u16_tail_high_odd by (cbn [length] in Hlen; try lia; assumption).
              rewrite app_nil_r. split; [exact Ht|]. exists k0. split; [exact Hg|]. split; [reflexivity|].
              split; [exact Hlt|]. rewrite <- Hr. split; [apply next16_high_odd; exact Hh|].
              split; [lia|]. reflexivity.
Qed.

Lemma u16_loop_result : forall be t g input fuel, (decode_fuel input <= fuel)%nat ->
    result_of input (xdecode_loop_impl (u16_step be) fuel u16_new (xtrap_of t g) input)
    = apply_trap t input 0 (pieces (utf16_next be) input) [].
Proof.
  intros be t g input fuel Hf. unfold xdecode_loop_impl.
  apply (xloop_result u16st (u16_step be) (utf16_next be) u16_bnd DECODER_K RESERVE_DIV RESERVE_MIN
           (utf16_next_size be) (utf16_bad_small be) reserve_min_covers_decoder (u16_call_ok be) t g input u16_new fuel);
    [reflexivity|exact Hf].
Qed.
