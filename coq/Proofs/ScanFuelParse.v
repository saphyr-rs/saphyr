(* The parser model emits at most 4*T+1 events on T tokens: a potential [pmu] strictly decreases at
   every successful [state_machine] step, so [parse_all]/[parse_load] never end in [PFuel] when
   [pmu p < fuel] (unless the scanner itself ran out of fuel).  This is the parser's part of the ScanFuel*.v group
   (no run of the pipeline ends because the model's fuel ran out); nothing in it concerns the scanner. *)
From Coq Require Import List NArith ZArith Bool Arith Lia.
Import ListNotations.
Require Import Parser SBase SPrim SDir SScalar SFetch Pipe PipeL ParserView.
Local Open Scope nat_scope.

(* the potential *)

Definition ntoks (p : parser) : nat :=
  length (p_toks p) + match p_token p with Some _ => 1 | None => 0 end.

Definition nxt (p : parser) : option token :=
  match p_token p with
  | Some t => Some t
  | None => match p_toks p with [] => None | t :: _ => Some t end
  end.

Definition is_value (o : option token) : bool :=
  match o with Some (_, TValue) => true | _ => false end.

Definition nxt_is_value (p : parser) : bool := is_value (nxt p).

(* [w s v]: the weight of the current state [s]; [v] says whether the next token is a Value.  A token is worth 4 and a
   state on the stack [vst].  The weights are such that every successful step lowers [pmu]: a step that takes no token
   lowers the weight of the state and of the stack together (a state that comes off the stack falls from [vst] to [w],
   [w_lt_vst]); one that takes k tokens raises it by less than 4 * k.  BlockMappingKey and BlockMappingValue hand over
   to each other without taking a token, the first when a Value follows, the second when none does: hence [v]. *)
Definition w (s : pstate) (v : bool) : nat :=
  match s with
  | SStreamStart => 1
  | SImplicitDocumentStart => 4
  | SDocumentStart => 0
  | SDocumentContent => 1
  | SDocumentEnd => 1
  | SBlockNode => 1
  | SBlockSequenceFirstEntry => 0
  | SBlockSequenceEntry => 0
  | SIndentlessSequenceEntry => 0
  | SBlockMappingFirstKey => 0
  | SBlockMappingKey => if v then 1 else 0
  | SBlockMappingValue => if v then 0 else 1
  | SFlowSequenceFirstEntry => 0
  | SFlowSequenceEntry => 0
  | SFlowSequenceEntryMappingKey => 4
  | SFlowSequenceEntryMappingValue => if v then 0 else 2
  | SFlowSequenceEntryMappingEnd _ => 1
  | SFlowMappingFirstKey => 0
  | SFlowMappingKey => 0
  | SFlowMappingValue => 1
  | SFlowMappingEmptyValue => 1
  | SEnd => 0
  end.

(* weight of a state sitting on the stack: 1 + max over v of w x v *)
Definition vst (s : pstate) : nat :=
  match s with
  | SStreamStart => 2
  | SImplicitDocumentStart => 5
  | SDocumentStart => 1
  | SDocumentContent => 2
  | SDocumentEnd => 2
  | SBlockNode => 2
  | SBlockSequenceFirstEntry => 1
  | SBlockSequenceEntry => 1
  | SIndentlessSequenceEntry => 1
  | SBlockMappingFirstKey => 1
  | SBlockMappingKey => 2
  | SBlockMappingValue => 2
  | SFlowSequenceFirstEntry => 1
  | SFlowSequenceEntry => 1
  | SFlowSequenceEntryMappingKey => 5
  | SFlowSequenceEntryMappingValue => 3
  | SFlowSequenceEntryMappingEnd _ => 2
  | SFlowMappingFirstKey => 1
  | SFlowMappingKey => 1
  | SFlowMappingValue => 2
  | SFlowMappingEmptyValue => 2
  | SEnd => 1
  end.

Fixpoint sumv (l : list pstate) : nat :=
  match l with [] => 0 | x :: r => vst x + sumv r end.

Definition base (p : parser) : nat := 4 * ntoks p + sumv (p_states p).

Definition pmu (p : parser) : nat :=
  4 * ntoks p + w (p_state p) (nxt_is_value p) + sumv (p_states p).

Lemma w_lt_vst : forall x v, w x v < vst x.
Proof. destruct x, v; cbn [w vst]; lia. Qed.

Lemma pmu_init : forall toks anchors aid tags keep,
  pmu {| p_toks := toks; p_token := None; p_states := []; p_state := SStreamStart;
         p_anchors := anchors; p_anchor_id := aid; p_tags := tags; p_keep_tags := keep |} = 4 * length toks + 1.
Proof.
  intros. unfold pmu, ntoks.
  cbn [p_toks p_token p_states p_state w sumv]. lia.
Qed.

(* [p'] has no more tokens than [p], same stack, same state *)
Definition le_p (p' p : parser) : Prop :=
  ntoks p' <= ntoks p /\ p_states p' = p_states p /\ p_state p' = p_state p.

(* tactics *)

Lemma ok_inj : forall (A B : Type) (a c : A) (b d : B), Parser.Ok (a, b) = Parser.Ok (c, d) -> b = d.
Proof. intros. inversion H. reflexivity. Qed.

Ltac red_in H :=
  cbv delta [Parser.peek Parser.pop_state] in H;
  cbn [Parser.skip Parser.push_state Parser.set_state Parser.set_states Parser.set_tok Parser.set_anchors
       Parser.set_tags Parser.register_anchor
       p_toks p_token p_states p_state p_anchors p_anchor_id p_tags p_keep_tags fst snd] in H.

Lemma is_value_tis t : is_value (Some t) = tis TValue (snd t).
Proof. destruct t as [sp []]; reflexivity. Qed.

(* Reduction is staged - record updates first, then the definition of the potential, then its parts - because
   [Qed] re-checks each step as a conversion, and one jump from [pmu (skip (set_state ...))] to arithmetic
   sends the kernel through [w] and [vst] of a state still unknown, branch by branch. *)
Ltac red_all :=
  cbn [Parser.set_state Parser.set_states Parser.set_tok Parser.set_anchors Parser.set_tags Parser.push_state
       Parser.skip clear_anchors p_toks p_token p_states p_state p_anchors p_anchor_id p_tags p_keep_tags] in *;
  unfold pmu, base, le_p, ntoks, nxt_is_value, nxt in *;
  cbn [w vst sumv length Parser.set_state Parser.set_states Parser.set_tok Parser.set_anchors Parser.set_tags
       Parser.push_state Parser.skip p_toks p_token p_states p_state p_anchors p_anchor_id p_tags p_keep_tags] in *;
  rewrite ?is_value_tis in *; cbn [is_value tis snd] in *.

Ltac wfacts :=
  repeat match goal with
  | |- context [w ?x ?v] =>
      is_var x;
      lazymatch goal with
      | _ : w x v < vst x |- _ => fail
      | _ => pose proof (w_lt_vst x v)
      end
  | _ : context [w ?x ?v] |- _ =>
      is_var x;
      lazymatch goal with
      | _ : w x v < vst x |- _ => fail
      | _ => pose proof (w_lt_vst x v)
      end
  end.

Ltac use_le E p1 :=
  destruct p1 as [? ? ? ? ? ? ? ?]; red_all;
  let a := fresh "Hn" in let b := fresh "Hs" in let c := fresh "Ht" in
  destruct E as (a & b & c); subst.

(* what is known of the kind of the next token decides [nxt_is_value]; where nothing is known, both answers do *)
Ltac kinds :=
  repeat match goal with
  | E : tis ?c ?k = _ |- context [tis ?c ?k] => rewrite E
  | E : tin ?l ?k = false |- context [tis ?c ?k] => rewrite (tin_false l k c E) by (cbn [In]; tauto)
  | |- context [tis ?c ?k] => destruct (tis c k)
  end.

Ltac fin H := apply ok_inj in H; subst; red_all; kinds; wfacts; lia.

(* [hook H] is where [brk] splits on a call of a helper and puts what is known of the helper's result in its place; it
   is bound ([::=]) after the lemmas it applies, which are themselves proved with [brk] *)
Ltac hook H := fail.

(* [brk H], H : body = Ok _: case analysis on whatever the body matches on, until H is an equation between two [Ok]
   (left to the caller) or has an Err / Panic on the left (discharged).  In this order: a variable or a test on a
   token kind; a call of a helper ([hook]); any other scrutinee that contains no match itself. *)
Ltac brk H :=
  red_in H;
  lazymatch type of H with
  | Parser.Ok _ = Parser.Ok _ =>
      repeat match type of H with
             | context [match ?x with _ => _ end] => is_var x; destruct x; red_in H
             end
  | Parser.Err _ = _ => discriminate H
  | Parser.Panic _ = _ => discriminate H
  | _ =>
    first
    [ match type of H with
      | context [match ?x with _ => _ end] => is_var x; destruct x
      | context [if tis ?c ?k then _ else _] => destruct (tis c k) eqn:?
      | context [if tin ?l ?k then _ else _] => destruct (tin l k) eqn:?
      end; brk H
    | hook H; brk H
    | match type of H with
      | context [match ?x with _ => _ end] =>
          lazymatch x with
          | context [match _ with _ => _ end] => fail
          | _ => destruct x
          end
      end; brk H
    | idtac ]
  end.

(* fuelled helpers *)

Lemma process_directives_le : forall f p vs tags p',
  process_directives f p vs tags = Parser.Ok p' -> le_p p' p.
Proof.
  induction f; intros p vs tags p' H; [discriminate H|].
  cbn [process_directives] in H. destruct p as [xtoks xtk xsts xst xanc xaid xtgs xkeep].
  brk H.
  all: try (apply IHf in H; revert H; unfold le_p; red_all; intuition lia).
  all: inversion H; subst; unfold le_p; red_all; intuition lia.
Qed.

Lemma skip_document_ends_le : forall f p p',
  skip_document_ends f p = Parser.Ok p' -> le_p p' p.
Proof.
  induction f; intros p p' H; [discriminate H|].
  cbn [skip_document_ends] in H. destruct p as [xtoks xtk xsts xst xanc xaid xtgs xkeep].
  brk H.
  all: try (apply IHf in H; revert H; unfold le_p; red_all; intuition lia).
  all: inversion H; subst; unfold le_p; red_all; intuition lia.
Qed.

(* parse_node *)

Lemma node_props_le : forall p t aid tg p',
  node_props p t = Parser.Ok (aid, tg, p') -> le_p p' p.
Proof.
  intros p t aid tg p' H. unfold node_props in H. destruct p as [xtoks xtk xsts xst xanc xaid xtgs xkeep].
  brk H.
  all: inversion H; subst; unfold le_p; red_all; intuition lia.
Qed.

Lemma empty_or_err_le : forall p aid tg sp ev p',
  empty_or_err p aid tg sp = Parser.Ok (ev, p') -> pmu p' <= base p.
Proof.
  intros p aid tg sp ev p' H. unfold empty_or_err in H. destruct p as [xtoks xtk xsts xst xanc xaid xtgs xkeep].
  brk H. fin H.
Qed.

Ltac hook H ::=
  match type of H with
  | context [match process_directives ?f ?P ?v ?t with _ => _ end] =>
      let E := fresh "E" in let p1 := fresh "p" in
      destruct (process_directives f P v t) as [p1|?|?] eqn:E;
      [apply process_directives_le in E; use_le E p1| |]
  | context [match skip_document_ends ?f ?P with _ => _ end] =>
      let E := fresh "E" in let p1 := fresh "p" in
      destruct (skip_document_ends f P) as [p1|?|?] eqn:E;
      [apply skip_document_ends_le in E; use_le E p1| |]
  | context [match node_props ?P ?t with _ => _ end] =>
      let E := fresh "E" in let p1 := fresh "p" in
      destruct (node_props P t) as [[[? ?] p1]|?|?] eqn:E;
      [apply node_props_le in E; use_le E p1| |]
  end.

Lemma node_content_le : forall p aid tg b i ev p',
  node_content p aid tg b i = Parser.Ok (ev, p') -> pmu p' <= base p.
Proof.
  intros p aid tg b i ev p' H. unfold node_content in H. destruct p as [xtoks xtk xsts xst xanc xaid xtgs xkeep].
  brk H.
  all: try (apply empty_or_err_le in H; red_all; lia).
  all: fin H.
Qed.

Lemma parse_node_le : forall p b i ev p',
  parse_node p b i = Parser.Ok (ev, p') -> pmu p' <= base p.
Proof.
  intros p b i ev p' H. unfold parse_node in H. destruct p as [xtoks xtk xsts xst xanc xaid xtgs xkeep].
  brk H.
  all: try (apply node_content_le in H; red_all; lia).
  all: fin H.
Qed.

(* the state functions *)

Lemma explicit_document_start_lt : forall p ev p',
  explicit_document_start p = Parser.Ok (ev, p') -> pmu p' < base p.
Proof.
  intros p ev p' H. unfold explicit_document_start in H. destruct p as [xtoks xtk xsts xst xanc xaid xtgs xkeep].
  brk H; fin H.
Qed.

Ltac term H :=
  lazymatch type of H with
  | parse_node _ _ _ = _ => apply parse_node_le in H; red_all; wfacts; lia
  | explicit_document_start _ = _ => apply explicit_document_start_lt in H; red_all; wfacts; lia
  | _ => fin H
  end.

(* [go f]: every [_dec] lemma of a state function: its body by the equation [f] (or by unfolding [f]), the parser
   record split into fields, [brk]; each branch that is left ends in a node function or in a literal result ([term]) *)
Ltac go f :=
  let H := fresh "H" in let Hs := fresh "Hs" in let p := fresh "p" in
  intros p ? ? Hs H; first [rewrite f in H; unfold node_or_empty in H; cbn [negb orb] in H | unfold f in H];
  destruct p as [xtoks xtk xsts xst xanc xaid xtgs xkeep];
  cbn [p_state] in Hs; subst;
  brk H; term H.

Lemma stream_start_dec : forall p ev p',
  p_state p = SStreamStart -> stream_start p = Parser.Ok (ev, p') -> pmu p' < pmu p.
Proof. go stream_start. Qed.

Lemma document_start_impl_dec : forall p ev p',
  p_state p = SImplicitDocumentStart -> document_start p true = Parser.Ok (ev, p') -> pmu p' < pmu p.
Proof. go document_start_if. Qed.

Lemma document_start_expl_dec : forall p ev p',
  p_state p = SDocumentStart -> document_start p false = Parser.Ok (ev, p') -> pmu p' < pmu p.
Proof. go document_start_if. Qed.

Lemma document_content_dec : forall p ev p',
  p_state p = SDocumentContent -> document_content p = Parser.Ok (ev, p') -> pmu p' < pmu p.
Proof. go document_content_if. Qed.

Lemma document_end_dec : forall p ev p',
  p_state p = SDocumentEnd -> document_end p = Parser.Ok (ev, p') -> pmu p' < pmu p.
Proof. go document_end_if. Qed.

Lemma block_node_dec : forall p ev p',
  p_state p = SBlockNode -> parse_node p true false = Parser.Ok (ev, p') -> pmu p' < pmu p.
Proof.
  intros p ev p' Hs H. apply parse_node_le in H. destruct p as [xtoks xtk xsts xst xanc xaid xtgs xkeep]. cbn [p_state] in Hs; subst.
  red_all. lia.
Qed.

Lemma block_mapping_first_key_dec : forall p ev p',
  p_state p = SBlockMappingFirstKey -> block_mapping_key p true = Parser.Ok (ev, p') -> pmu p' < pmu p.
Proof. go block_mapping_key_if. Qed.

Lemma block_mapping_key_dec : forall p ev p',
  p_state p = SBlockMappingKey -> block_mapping_key p false = Parser.Ok (ev, p') -> pmu p' < pmu p.
Proof. go block_mapping_key_if. Qed.

Lemma block_mapping_value_dec : forall p ev p',
  p_state p = SBlockMappingValue -> block_mapping_value p = Parser.Ok (ev, p') -> pmu p' < pmu p.
Proof. go block_mapping_value_if. Qed.

Lemma block_sequence_first_entry_dec : forall p ev p',
  p_state p = SBlockSequenceFirstEntry -> block_sequence_entry p true = Parser.Ok (ev, p') -> pmu p' < pmu p.
Proof. go block_sequence_entry_if. Qed.

Lemma block_sequence_entry_dec : forall p ev p',
  p_state p = SBlockSequenceEntry -> block_sequence_entry p false = Parser.Ok (ev, p') -> pmu p' < pmu p.
Proof. go block_sequence_entry_if. Qed.

Lemma indentless_sequence_entry_dec : forall p ev p',
  p_state p = SIndentlessSequenceEntry -> indentless_sequence_entry p = Parser.Ok (ev, p') -> pmu p' < pmu p.
Proof. go indentless_sequence_entry_if. Qed.

Lemma flow_sequence_first_entry_dec : forall p ev p',
  p_state p = SFlowSequenceFirstEntry -> flow_sequence_entry p true = Parser.Ok (ev, p') -> pmu p' < pmu p.
Proof. go flow_sequence_entry_if. Qed.

Lemma flow_sequence_entry_dec : forall p ev p',
  p_state p = SFlowSequenceEntry -> flow_sequence_entry p false = Parser.Ok (ev, p') -> pmu p' < pmu p.
Proof. go flow_sequence_entry_if. Qed.

Lemma flow_mapping_first_key_dec : forall p ev p',
  p_state p = SFlowMappingFirstKey -> flow_mapping_key p true = Parser.Ok (ev, p') -> pmu p' < pmu p.
Proof. go flow_mapping_key_if. Qed.

Lemma flow_mapping_key_dec : forall p ev p',
  p_state p = SFlowMappingKey -> flow_mapping_key p false = Parser.Ok (ev, p') -> pmu p' < pmu p.
Proof. go flow_mapping_key_if. Qed.

Lemma flow_mapping_value_dec : forall p ev p',
  p_state p = SFlowMappingValue -> flow_mapping_value p false = Parser.Ok (ev, p') -> pmu p' < pmu p.
Proof. go flow_mapping_value_if. Qed.

Lemma flow_mapping_empty_value_dec : forall p ev p',
  p_state p = SFlowMappingEmptyValue -> flow_mapping_value p true = Parser.Ok (ev, p') -> pmu p' < pmu p.
Proof. go flow_mapping_value_if. Qed.

Lemma flow_sequence_entry_mapping_key_dec : forall p ev p',
  p_state p = SFlowSequenceEntryMappingKey -> flow_sequence_entry_mapping_key p = Parser.Ok (ev, p') -> pmu p' < pmu p.
Proof. go flow_sequence_entry_mapping_key_if. Qed.

Lemma flow_sequence_entry_mapping_value_dec : forall p ev p',
  p_state p = SFlowSequenceEntryMappingValue -> flow_sequence_entry_mapping_value p = Parser.Ok (ev, p') -> pmu p' < pmu p.
Proof. go flow_sequence_entry_mapping_value_if. Qed.

Lemma flow_sequence_entry_mapping_end_dec : forall p m ev p',
  p_state p = SFlowSequenceEntryMappingEnd m -> flow_sequence_entry_mapping_end p m = Parser.Ok (ev, p') -> pmu p' < pmu p.
Proof.
  intros p m ev p' Hs H. unfold flow_sequence_entry_mapping_end in H. destruct p as [xtoks xtk xsts xst xanc xaid xtgs xkeep].
  cbn [p_state] in Hs; subst. fin H.
Qed.

(* every successful step strictly decreases the potential *)

Theorem state_machine_decreases : forall p ev p',
  state_machine p = Parser.Ok (ev, p') -> pmu p' < pmu p.
Proof.
  intros p ev p' H. unfold state_machine in H.
  destruct (p_state p) eqn:Hs.
  - eapply stream_start_dec; eassumption.
  - eapply document_start_impl_dec; eassumption.
  - eapply document_start_expl_dec; eassumption.
  - eapply document_content_dec; eassumption.
  - eapply document_end_dec; eassumption.
  - eapply block_node_dec; eassumption.
  - eapply block_sequence_first_entry_dec; eassumption.
  - eapply block_sequence_entry_dec; eassumption.
  - eapply indentless_sequence_entry_dec; eassumption.
  - eapply block_mapping_first_key_dec; eassumption.
  - eapply block_mapping_key_dec; eassumption.
  - eapply block_mapping_value_dec; eassumption.
  - eapply flow_sequence_first_entry_dec; eassumption.
  - eapply flow_sequence_entry_dec; eassumption.
  - eapply flow_sequence_entry_mapping_key_dec; eassumption.
  - eapply flow_sequence_entry_mapping_value_dec; eassumption.
  - eapply flow_sequence_entry_mapping_end_dec; eassumption.
  - eapply flow_mapping_first_key_dec; eassumption.
  - eapply flow_mapping_key_dec; eassumption.
  - eapply flow_mapping_value_dec; eassumption.
  - eapply flow_mapping_empty_value_dec; eassumption.
  - discriminate H.
Qed.

Lemma pmu_clear_anchors : forall p, pmu (clear_anchors p) = pmu p.
Proof. intros p. reflexivity. Qed.

(* the drivers *)

Theorem parse_all_no_fuel : forall fuel p se acc,
  pmu p < fuel -> se <> SFuel -> snd (parse_all fuel p se acc) <> PFuel.
Proof.
  induction fuel as [|fuel IH]; intros p se acc Hlt Hse; [lia|].
  cbn [parse_all].
  assert (Hstep : snd (match state_machine p with
      | Parser.Ok (ev, p') => parse_all fuel p' se (ev :: acc)
      | Parser.Err PErrScan =>
          (rev acc, match se with
                    | SError s m => PScanErr s m
                    | SPanic n => PPanic n
                    | SFuel => PFuel
                    | SEnded => PScanErr 0 {| m_index := 0; m_line := 0; m_col := 0 |}
                    end)
      | Parser.Err (PErr s m) => (rev acc, PParseErr s m)
      | Parser.Panic n => (rev acc, PPanic n)
      end) <> PFuel).
  { destruct (state_machine p) as [[ev p']|[|s m]|n] eqn:E.
    - apply IH; [|assumption]. apply state_machine_decreases in E. lia.
    - destruct se; cbn [snd]; congruence.
    - cbn [snd]. discriminate.
    - cbn [snd]. discriminate. }
  destruct (p_state p); try exact Hstep. cbn [snd]. discriminate.
Qed.

Theorem parse_load_no_fuel : forall fuel p se acc,
  pmu p < fuel -> se <> SFuel -> snd (parse_load fuel p se acc) <> PFuel.
Proof.
  induction fuel as [|fuel IH]; intros p se acc Hlt Hse; [lia|].
  cbn [parse_load].
  assert (Hstep : snd (match state_machine p with
      | Parser.Ok ((ev, _), p') =>
          let p' := match ev with EDocumentStart _ => clear_anchors p' | _ => p' end in
          parse_load fuel p' se (ev :: acc)
      | Parser.Err PErrScan =>
          (rev acc, match se with
                    | SError s m => PScanErr s m | SPanic n => PPanic n | SFuel => PFuel
                    | SEnded => PScanErr 0 {| m_index := 0; m_line := 0; m_col := 0 |} end)
      | Parser.Err (PErr s m) => (rev acc, PParseErr s m)
      | Parser.Panic n => (rev acc, PPanic n)
      end) <> PFuel).
  { destruct (state_machine p) as [[[ev sp] p']|[|s m]|n] eqn:E.
    - cbv zeta. apply IH; [|assumption]. apply state_machine_decreases in E.
      destruct ev; rewrite ?pmu_clear_anchors; lia.
    - destruct se; cbn [snd]; congruence.
    - cbn [snd]. discriminate.
    - cbn [snd]. discriminate. }
  destruct (p_state p); try exact Hstep. cbn [snd]. discriminate.
Qed.

Print Assumptions parse_all_no_fuel.
Print Assumptions parse_load_no_fuel.
