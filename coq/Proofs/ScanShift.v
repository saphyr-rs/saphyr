(* C15, scanner level: TAIL INDEPENDENCE of the scanner (position-shift equivariance).

   Two runs of the scanner model over the STRING input are related: both read the SAME remaining characters, but
   side 2 is "the same situation further down the stream": every marker of side 2 is the marker of side 1 with
   [sh_i d] added to the character index and [sh_l d] added to the line (same column), and the token counter
   [sc_tokens_parsed] (and the token number of every live simple key) is [sh_k d] larger.  Relational
   partial-correctness calculus [swp]: when both runs end properly the values / states satisfy the postcondition, or
   the errors are the same error site at shifted markers; a run that ends in OutOfFuel or Panic (either side) is not
   this proof's concern (ScanFuel*.v / ScanSafe*.v).

   [swp d] is the calculus [lwp (MS d)] of ScanLock.v and [SH d] is a lock ([shf_lock]) whose view [b1] of side 1's
   characters is the identity: the character-level walk over the scanner functions is that of ScanLock*.v.  Since the
   remaining text is IDENTICAL on the two sides every character test agrees trivially; the alignment premises
   [rn s1 0 <> 10] / [noLF k (rm s1)] of a lock's rules and contracts are NOT needed for the shift and are simply
   always available at the call sites.  What is genuinely different from ScanBrk.v:
     - [MS d]: exact shift of index and line (ScanBrk: same line/column, unrelated index);
     - [KS d]: the mark and the token number of a simple key are related only while the key is possible (a dead
       key may be the unshifted placeholder 0:0:0 / number 0 of fetch_stream_start and increase_flow_level);
     - [sc_tokens_parsed] is shifted by [sh_k d] (so is the [number] argument of roll_indent);
     - [ADJ]: adjacent_value_allowed_at is compared with the current index only inside a flow collection; at flow
       level 0 nothing is required beyond "not in the future" (at a document boundary side 1 is at index 0 =
       the initial value of the field while side 2 holds a stale value);
     - the lookahead counters of the string input need only agree on being zero;
     - the text may contain CR (ScanBrk's side 1 is CR-free).

   As in ScanBrk.v (see its header), the statements of this file and of ScanShift*.v are about this file's own [rm],
   [rn], [lk], [noLF], [ers], [bump], [drop1], [dropn], [bl1], [nb1], [nl1], [Qe], [lit], [n2are], [n3are],
   [docind_val], [docend_val], [proper_end], [skip_linebreak_eval], [skip_break_eval], each the definition or lemma of
   the same name in ScanLock.v by conversion; [swp d] is [lwp (MS d)], [TS d] is [Mtok (MS d)], [ES d] is
   [Mend (MS d)], [OTS d] is [Motok (MS d)], and [bwp] is the sections' local notation for [swp d].  [exact] and
   [apply] work across the two sets, [rewrite] and Ltac patterns do not; [SH_nb1_lock] (ScanShiftFetch.v) is the
   bridge where the conversion would run through a nest of setters. *)
From Coq Require Import List NArith ZArith Bool Arith Lia.
Import ListNotations.
Require Import Parser SBase SPrim SDir SScalar SFetch ScanLock ScanLockPrim.
Local Open Scope nat_scope.

Notation bst := (sc strin).
Notation BM := (@M strin).
Notation sops := str_ops.

Arguments N.sub : simpl never.

(* 1. The shift; the view [b1] of side 1's characters, here the identity *)
Record shift := { sh_i : N;     (* characters consumed before *)
                  sh_l : N;     (* lines before *)
                  sh_k : N }.   (* tokens delivered before *)

(* what side 2 shows where side 1 shows [c]: the same character *)
Definition b1 (c : chr) : chr := c.
Definition noLF (k : nat) (l : list chr) : Prop := forall i, i < k -> nth i l 0%N <> 10%N.

Lemma b1_0 : b1 0%N = 0%N.
Proof. reflexivity. Qed.
Lemma b1_sees : sees b1.
Proof. intros c. left. reflexivity. Qed.

Lemma noLF_skipn k n l : noLF (n + k) l -> noLF k (skipn n l).
Proof. exact (ScanLock.noLF_skipn k n l). Qed.
Lemma noLF_tl k l : noLF (S k) l -> noLF k (tl l).
Proof. exact (ScanLock.noLF_tl k l). Qed.

Definition bblind (p : chr -> bool) : Prop := forall c, p (b1 c) = p c.
Lemma bblind_any p : bblind p. Proof. intros c. reflexivity. Qed.
Lemma b1_eqb_blind k : ((k =? 10) || (k =? 13))%N = false -> bblind (fun c => (c =? k)%N).
Proof. intros _. apply bblind_any. Qed.

(* 2. The relations *)
Definition rm (s : bst) : list chr := si_chars (sc_in s).         (* remaining characters *)
Definition rn (s : bst) (i : nat) : chr := nth i (rm s) 0%N.        (* the i-th of them, NUL beyond the end *)
Definition lk (s : bst) : nat := si_look (sc_in s).                 (* the string input's lookahead counter *)

(* inputs: the same remaining text; the lookahead counters (only observable through [buf_is_empty] and the
   [assert_buflen] panics) agree on being zero *)
Record IS (i1 i2 : strin) : Prop := {
  is_chars : si_chars i2 = si_chars i1;
  is_look : Nat.eqb (si_look i2) 0 = Nat.eqb (si_look i1) 0 }.

(* markers: index and line shifted, same column *)
Definition shm (d : shift) (m : marker) : marker :=
  {| m_index := m_index m + sh_i d; m_line := m_line m + sh_l d; m_col := m_col m |}.
Definition shsp (d : shift) (sp : span) : span := {| sp_start := shm d (sp_start sp); sp_end := shm d (sp_end sp) |}.
Definition sht (d : shift) (t : token) : token := (shsp d (fst t), snd t).

Definition MS (d : shift) (m1 m2 : marker) : Prop :=
  (m_line m1 + sh_l d = m_line m2 /\ m_col m1 = m_col m2 /\ m_index m1 + sh_i d = m_index m2)%N.
Definition SPS (d : shift) (a b : span) : Prop := MS d (sp_start a) (sp_start b) /\ MS d (sp_end a) (sp_end b).
Definition TS (d : shift) (t1 t2 : token) : Prop := SPS d (fst t1) (fst t2) /\ snd t1 = snd t2.

(* simple keys: the same "possible" flag; the "required" flag, the mark (shifted) and the token number (shifted) are
   related while the key is possible - the scanner never reads them on a dead key (every test is guarded by
   sk_possible), and a dead key may be the placeholder of fetch_stream_start / increase_flow_level on one side and
   a removed key on the other *)
Record KS (d : shift) (k1 k2 : simple_key) : Prop := {
  ks_possible : sk_possible k1 = sk_possible k2;
  ks_required : sk_possible k1 = true -> sk_required k1 = sk_required k2;
  ks_number : sk_possible k1 = true -> (sk_token_number k1 + sh_k d)%N = sk_token_number k2;
  ks_mark : sk_possible k1 = true -> MS d (sk_mark k1) (sk_mark k2) }.

(* adjacent_value_allowed_at is only ever compared for equality with the current index, and only inside a flow
   collection ([fl] = flow level) *)
Definition ADJ (a1 i1 a2 i2 fl : N) : Prop := (a1 <= i1 /\ a2 <= i2 /\ (fl = 0 \/ (a1 = i1 <-> a2 = i2)))%N.

(* the fields that are plainly equal *)
Definition skel (s : bst) :=
  (sc_stream_start s, sc_stream_end s, sc_ska s, sc_indent s, sc_indents s, sc_flow_level s,
   sc_token_available s, sc_lws s, sc_ifms s).

(* THE STATE RELATION *)
Record SH (d : shift) (s1 s2 : bst) : Prop := {
  sh_in : IS (sc_in s1) (sc_in s2);
  sh_mark : MS d (sc_mark s1) (sc_mark s2);
  sh_tokens : Forall2 (TS d) (sc_tokens s1) (sc_tokens s2);
  sh_sks : Forall2 (KS d) (sc_sks s1) (sc_sks s2);
  sh_adj : ADJ (sc_adjacent s1) (m_index (sc_mark s1)) (sc_adjacent s2) (m_index (sc_mark s2)) (sc_flow_level s1);
  sh_tp : (sc_tokens_parsed s1 + sh_k d)%N = sc_tokens_parsed s2;
  sh_skel : skel s1 = skel s2 }.
Arguments sh_in {d s1 s2}. Arguments sh_mark {d s1 s2}. Arguments sh_tokens {d s1 s2}.
Arguments sh_sks {d s1 s2}. Arguments sh_adj {d s1 s2}. Arguments sh_tp {d s1 s2}. Arguments sh_skel {d s1 s2}.
Arguments is_chars {i1 i2}. Arguments is_look {i1 i2}.
Arguments ks_possible {d k1 k2}. Arguments ks_required {d k1 k2}. Arguments ks_number {d k1 k2}.
Arguments ks_mark {d k1 k2}.

(* everything but the input (frame conditions of the input primitives: [ers t = ers s]) *)
Definition ers {I} (s : sc I) : sc unit :=
  {| sc_in := tt; sc_mark := sc_mark s; sc_tokens := sc_tokens s;
     sc_stream_start := sc_stream_start s; sc_stream_end := sc_stream_end s; sc_adjacent := sc_adjacent s;
     sc_ska := sc_ska s; sc_sks := sc_sks s; sc_indent := sc_indent s; sc_indents := sc_indents s;
     sc_flow_level := sc_flow_level s; sc_tokens_parsed := sc_tokens_parsed s;
     sc_token_available := sc_token_available s; sc_lws := sc_lws s; sc_ifms := sc_ifms s |}.
Lemma ers_set_in {I} (i : I) (s : sc I) : ers (set_in i s) = ers s.
Proof. reflexivity. Qed.
Lemma ers_fields {I J} (s : sc I) (t : sc J) : ers s = ers t ->
  sc_mark s = sc_mark t /\ sc_tokens s = sc_tokens t /\ sc_stream_start s = sc_stream_start t
  /\ sc_stream_end s = sc_stream_end t /\ sc_adjacent s = sc_adjacent t /\ sc_ska s = sc_ska t
  /\ sc_sks s = sc_sks t /\ sc_indent s = sc_indent t /\ sc_indents s = sc_indents t
  /\ sc_flow_level s = sc_flow_level t /\ sc_tokens_parsed s = sc_tokens_parsed t
  /\ sc_token_available s = sc_token_available t /\ sc_lws s = sc_lws t
  /\ sc_ifms s = sc_ifms t.
Proof. exact (ScanLock.ers_fields s t). Qed.

(* markers *)
Section Markers.
Variable d : shift.
Lemma MS_shm m : MS d m (shm d m).
Proof. unfold MS, shm. cbn [m_index m_line m_col]. auto. Qed.
Lemma MS_eq m1 m2 : MS d m1 m2 -> m2 = shm d m1.
Proof. unfold MS, shm. destruct m1 as [i1 l1 c1], m2 as [i2 l2 c2]. cbn [m_index m_line m_col]. intros (L & C & X). subst. reflexivity. Qed.
Lemma MS_line m1 m2 : MS d m1 m2 -> (m_line m1 + sh_l d)%N = m_line m2. Proof. intros H. apply H. Qed.
Lemma MS_col m1 m2 : MS d m1 m2 -> m_col m1 = m_col m2. Proof. intros H. apply H. Qed.
Lemma MS_index m1 m2 : MS d m1 m2 -> (m_index m1 + sh_i d)%N = m_index m2. Proof. intros H. apply H. Qed.
Lemma MS_adv n m1 m2 : MS d m1 m2 -> MS d (adv n m1) (adv n m2).
Proof. intros (L & C & X). unfold MS. cbn [adv m_line m_col m_index]. lia. Qed.
Lemma MS_nlm m1 m2 : MS d m1 m2 -> MS d (nlm m1) (nlm m2).
Proof. intros (L & C & X). unfold MS. cbn [nlm m_line m_col m_index]. lia. Qed.
(* lines of two related pairs compare alike *)
Lemma MS_line_eqb a1 a2 b1' b2 : MS d a1 a2 -> MS d b1' b2 -> (m_line a2 =? m_line b2)%N = (m_line a1 =? m_line b1')%N.
Proof.
  intros (L1 & _) (L2 & _). rewrite <- L1, <- L2.
  destruct (N.eqb_spec (m_line a1) (m_line b1')); destruct (N.eqb_spec (m_line a1 + sh_l d) (m_line b1' + sh_l d))%N;
    try reflexivity; lia.
Qed.
Lemma MS_line_ltb a1 a2 b1' b2 : MS d a1 a2 -> MS d b1' b2 -> (m_line a2 <? m_line b2)%N = (m_line a1 <? m_line b1')%N.
Proof.
  intros (L1 & _) (L2 & _). rewrite <- L1, <- L2.
  destruct (N.ltb_spec (m_line a1) (m_line b1')); destruct (N.ltb_spec (m_line a1 + sh_l d) (m_line b1' + sh_l d))%N;
    try reflexivity; lia.
Qed.
Lemma MS_index_far a1 a2 b1' b2 k : MS d a1 a2 -> MS d b1' b2 ->
  (m_index a2 + k <? m_index b2)%N = (m_index a1 + k <? m_index b1')%N.
Proof.
  intros (_ & _ & X1) (_ & _ & X2). rewrite <- X1, <- X2.
  destruct (N.ltb_spec (m_index a1 + k) (m_index b1')); destruct (N.ltb_spec (m_index a1 + sh_i d + k) (m_index b1' + sh_i d))%N;
    try reflexivity; lia.
Qed.
Lemma SPS_eq a b : SPS d a b -> b = shsp d a.
Proof. destruct a as [a1 a2], b as [b1' b2]. unfold SPS, shsp. cbn [sp_start sp_end]. intros [H1 H2]. rewrite (MS_eq _ _ H1), (MS_eq _ _ H2). reflexivity. Qed.
Lemma SPS_shsp a : SPS d a (shsp d a).
Proof. split; apply MS_shm. Qed.
Lemma TS_eq t1 t2 : TS d t1 t2 -> t2 = sht d t1.
Proof. destruct t1 as [sp1 k1], t2 as [sp2 k2]. unfold TS, sht. cbn [fst snd]. intros [H <-]. rewrite (SPS_eq _ _ H). reflexivity. Qed.
Lemma TS_sht t : TS d t (sht d t).
Proof. split; [apply SPS_shsp|reflexivity]. Qed.
Lemma TSs_eq l1 l2 : Forall2 (TS d) l1 l2 -> l2 = map (sht d) l1.
Proof. induction 1 as [|a b l1 l2 H _ IH]; [reflexivity|]. cbn [map]. rewrite (TS_eq _ _ H), IH. reflexivity. Qed.
Lemma TSs_map l : Forall2 (TS d) l (map (sht d) l).
Proof. induction l; cbn [map]; constructor; [apply TS_sht|assumption]. Qed.

(* how the mark may move: [mark_step c1 c2 m1 m2] (old marks c, new marks m) *)
Definition mark_step (c1 c2 m1 m2 : marker) : Prop := MS d m1 m2 /\ (m_index c1 <= m_index m1)%N.
Lemma mark_step_refl c1 c2 : MS d c1 c2 -> mark_step c1 c2 c1 c2.
Proof. intros H. split; [exact H|lia]. Qed.
Lemma mark_step_adv n c1 c2 : MS d c1 c2 -> mark_step c1 c2 (adv n c1) (adv n c2).
Proof. intros H. split; [apply MS_adv; exact H|]. cbn [adv m_index]. lia. Qed.
Lemma mark_step_nl0 c1 c2 : MS d c1 c2 -> mark_step c1 c2 (nlm c1) (nlm c2).
Proof. intros H. split; [apply MS_nlm; exact H|]. cbn [nlm m_index]. lia. Qed.
(* fetch_stream_end: a new line without consuming anything *)
Lemma mark_step_eol c1 c2 : MS d c1 c2 ->
  mark_step c1 c2 {| m_index := m_index c1; m_line := m_line c1 + 1; m_col := 0 |}
                  {| m_index := m_index c2; m_line := m_line c2 + 1; m_col := 0 |}.
Proof. intros (L & C & X). unfold mark_step, MS. cbn [m_index m_line m_col]. lia. Qed.
Lemma ADJ_step c1 c2 m1 m2 a1 a2 fl : MS d c1 c2 -> mark_step c1 c2 m1 m2 ->
  ADJ a1 (m_index c1) a2 (m_index c2) fl -> ADJ a1 (m_index m1) a2 (m_index m2) fl.
Proof. intros (_ & _ & X) ((_ & _ & X') & HI) (A1 & A2 & AE). unfold ADJ. lia. Qed.
(* after a strict advance the stored value is stale on both sides, whatever the flow level *)
Lemma ADJ_stale c1 c2 m1 m2 a1 a2 fl fl' : MS d c1 c2 -> MS d m1 m2 -> (m_index c1 < m_index m1)%N ->
  ADJ a1 (m_index c1) a2 (m_index c2) fl -> ADJ a1 (m_index m1) a2 (m_index m2) fl'.
Proof. intros (_ & _ & X) (_ & _ & X') HI (A1 & A2 & AE). unfold ADJ. lia. Qed.
Lemma ADJ_here i1 i2 fl : ADJ i1 i1 i2 i2 fl.
Proof. unfold ADJ. lia. Qed.
(* a key saved at the current mark *)
Lemma KS_here c1 c2 p r n1 n2 : MS d c1 c2 -> (n1 + sh_k d)%N = n2 ->
  KS d {| sk_possible := p; sk_required := r; sk_token_number := n1; sk_mark := c1 |}
       {| sk_possible := p; sk_required := r; sk_token_number := n2; sk_mark := c2 |}.
Proof. intros H HN. split; cbn [sk_possible sk_required sk_token_number sk_mark]; auto. Qed.
(* a key that is not possible: nothing but the flags matters *)
Lemma KS_dead r1 r2 n1 n2 m1 m2 :
  KS d {| sk_possible := false; sk_required := r1; sk_token_number := n1; sk_mark := m1 |}
       {| sk_possible := false; sk_required := r2; sk_token_number := n2; sk_mark := m2 |}.
Proof. split; cbn [sk_possible sk_required sk_token_number sk_mark]; auto; intros; discriminate. Qed.
Lemma KS_kill k1 k2 : KS d k1 k2 ->
  KS d {| sk_possible := false; sk_required := sk_required k1; sk_token_number := sk_token_number k1; sk_mark := sk_mark k1 |}
       {| sk_possible := false; sk_required := sk_required k2; sk_token_number := sk_token_number k2; sk_mark := sk_mark k2 |}.
Proof.
  intros [P R N' M]. split; cbn [sk_possible sk_required sk_token_number sk_mark]; auto; intros; discriminate.
Qed.
Lemma KS_dead_any k1 k2 : sk_possible k1 = false -> sk_possible k2 = false -> KS d k1 k2.
Proof. intros P1 P2. split; rewrite ?P1, ?P2; auto; intros; discriminate. Qed.
End Markers.

(* 3. Reading the state relation *)
Ltac skel_cbn :=
  cbn [sc_in sc_mark sc_tokens sc_stream_start sc_stream_end sc_adjacent sc_ska sc_sks sc_indent sc_indents
       sc_flow_level sc_tokens_parsed sc_token_available sc_lws sc_ifms
       upd set_in set_mark set_tokens set_flags set_ska set_lws set_adj set_ta set_ss set_se
       set_struct set_sks set_indent set_fl set_tp set_ifms].

Lemma skel_fields (s t : bst) : skel s = skel t ->
  sc_stream_start s = sc_stream_start t /\ sc_stream_end s = sc_stream_end t /\ sc_ska s = sc_ska t
  /\ sc_indent s = sc_indent t /\ sc_indents s = sc_indents t /\ sc_flow_level s = sc_flow_level t
  /\ sc_token_available s = sc_token_available t
  /\ sc_lws s = sc_lws t /\ sc_ifms s = sc_ifms t.
Proof. unfold skel. intros H. inversion H. repeat split; assumption. Qed.

Section Read.
Context {d : shift} {s1 s2 : bst} (H : SH d s1 s2).
Lemma SH_line : (m_line (sc_mark s1) + sh_l d)%N = m_line (sc_mark s2). Proof. exact (MS_line _ _ _ (sh_mark H)). Qed.
Lemma SH_col : m_col (sc_mark s1) = m_col (sc_mark s2). Proof. exact (MS_col _ _ _ (sh_mark H)). Qed.
Lemma SH_index : (m_index (sc_mark s1) + sh_i d)%N = m_index (sc_mark s2). Proof. exact (MS_index _ _ _ (sh_mark H)). Qed.
Lemma SH_stream_start : sc_stream_start s1 = sc_stream_start s2. Proof. pose proof (skel_fields _ _ (sh_skel H)). tauto. Qed.
Lemma SH_stream_end : sc_stream_end s1 = sc_stream_end s2. Proof. pose proof (skel_fields _ _ (sh_skel H)). tauto. Qed.
Lemma SH_ska : sc_ska s1 = sc_ska s2. Proof. pose proof (skel_fields _ _ (sh_skel H)). tauto. Qed.
Lemma SH_indent : sc_indent s1 = sc_indent s2. Proof. pose proof (skel_fields _ _ (sh_skel H)). tauto. Qed.
Lemma SH_indents : sc_indents s1 = sc_indents s2. Proof. pose proof (skel_fields _ _ (sh_skel H)). tauto. Qed.
Lemma SH_flow_level : sc_flow_level s1 = sc_flow_level s2. Proof. pose proof (skel_fields _ _ (sh_skel H)). tauto. Qed.
Lemma SH_tokens_parsed : (sc_tokens_parsed s1 + sh_k d)%N = sc_tokens_parsed s2. Proof. exact (sh_tp H). Qed.
Lemma SH_token_available : sc_token_available s1 = sc_token_available s2. Proof. pose proof (skel_fields _ _ (sh_skel H)). tauto. Qed.
Lemma SH_lws : sc_lws s1 = sc_lws s2. Proof. pose proof (skel_fields _ _ (sh_skel H)). tauto. Qed.
Lemma SH_ifms : sc_ifms s1 = sc_ifms s2. Proof. pose proof (skel_fields _ _ (sh_skel H)). tauto. Qed.
(* adjacent_value_allowed_at = the current index: the same answer on both sides inside a flow collection *)
Lemma SH_adj_eqb : sc_flow_level s1 <> 0%N ->
  (m_index (sc_mark s2) =? sc_adjacent s2)%N = (m_index (sc_mark s1) =? sc_adjacent s1)%N.
Proof.
  intros HF. destruct (sh_adj H) as (A1 & A2 & [AE|AE]); [contradiction|].
  destruct (N.eqb_spec (m_index (sc_mark s2)) (sc_adjacent s2)) as [E2|N2];
    destruct (N.eqb_spec (m_index (sc_mark s1)) (sc_adjacent s1)) as [E1|N1]; try reflexivity; exfalso.
  - apply N1. symmetry. apply AE. symmetry. exact E2.
  - apply N2. symmetry. apply AE. symmetry. exact E1.
Qed.
Lemma SH_tokens_len : length (sc_tokens s1) = length (sc_tokens s2). Proof. exact (F2_length _ _ _ (sh_tokens H)). Qed.
(* the inputs *)
Lemma SH_rm : rm s2 = rm s1. Proof. exact (is_chars (sh_in H)). Qed.
Lemma SH_lk0 : Nat.eqb (lk s2) 0 = Nat.eqb (lk s1) 0. Proof. exact (is_look (sh_in H)). Qed.
Lemma SH_rn_eq k : rn s2 k = rn s1 k. Proof. unfold rn. rewrite SH_rm. reflexivity. Qed.
Lemma SH_rn k : noLF k (rm s1) -> rn s2 k = b1 (rn s1 k). Proof. intros _. apply SH_rn_eq. Qed.
End Read.

(* [sh_sync H]: H : SH d s1 s2; every equal-valued field of s2 in the goal (the column of the mark included) becomes
   the field of s1; the line of the mark of s2 becomes [line of s1 + sh_l d], its token counter
   [sc_tokens_parsed s1 + sh_k d].  [sh_fwd H] rewrites the equal-valued fields the other way round. *)
Ltac sh_sync H :=
  rewrite <- ?(SH_line H), <- ?(SH_col H), <- ?(SH_stream_start H), <- ?(SH_stream_end H), <- ?(SH_ska H),
          <- ?(SH_indent H), <- ?(SH_indents H), <- ?(SH_flow_level H), <- ?(SH_tokens_parsed H),
          <- ?(SH_token_available H), <- ?(SH_lws H), <- ?(SH_ifms H), <- ?(SH_tokens_len H).
Ltac sh_fwd H :=
  rewrite ?(SH_col H), ?(SH_stream_start H), ?(SH_stream_end H), ?(SH_ska H),
          ?(SH_indent H), ?(SH_indents H), ?(SH_flow_level H),
          ?(SH_token_available H), ?(SH_lws H), ?(SH_ifms H), ?(SH_tokens_len H).
Ltac skel_eq H := unfold skel; skel_cbn; sh_fwd H; reflexivity.

(* 4. The state relation under updates *)
Section Upd.
Variable d : shift.

Lemma SH_set_in i1 i2 s1 s2 : SH d s1 s2 -> IS i1 i2 -> SH d (set_in i1 s1) (set_in i2 s2).
Proof. intros H HI. constructor; skel_cbn; try apply H. exact HI. Qed.
Lemma SH_set_mark m1 m2 s1 s2 : SH d s1 s2 -> mark_step d (sc_mark s1) (sc_mark s2) m1 m2 ->
  SH d (set_mark m1 s1) (set_mark m2 s2).
Proof.
  intros H HM. constructor; skel_cbn; try apply H.
  - exact (proj1 HM).
  - eapply ADJ_step; [exact (sh_mark H)|exact HM|apply H].
Qed.
Lemma SH_set_tokens l1 l2 s1 s2 : SH d s1 s2 -> Forall2 (TS d) l1 l2 -> SH d (set_tokens l1 s1) (set_tokens l2 s2).
Proof. intros H HL. constructor; skel_cbn; try apply H. exact HL. Qed.
Lemma SH_set_sks l1 l2 s1 s2 : SH d s1 s2 -> Forall2 (KS d) l1 l2 -> SH d (set_sks l1 s1) (set_sks l2 s2).
Proof. intros H HL. constructor; skel_cbn; try apply H; try exact HL; skel_eq H. Qed.
Lemma SH_set_ska b s1 s2 : SH d s1 s2 -> SH d (set_ska b s1) (set_ska b s2).
Proof. intros H. constructor; skel_cbn; try apply H. skel_eq H. Qed.
Lemma SH_set_lws b s1 s2 : SH d s1 s2 -> SH d (set_lws b s1) (set_lws b s2).
Proof. intros H. constructor; skel_cbn; try apply H. skel_eq H. Qed.
Lemma SH_set_ta b s1 s2 : SH d s1 s2 -> SH d (set_ta b s1) (set_ta b s2).
Proof. intros H. constructor; skel_cbn; try apply H. skel_eq H. Qed.
Lemma SH_set_ss b s1 s2 : SH d s1 s2 -> SH d (set_ss b s1) (set_ss b s2).
Proof. intros H. constructor; skel_cbn; try apply H. skel_eq H. Qed.
Lemma SH_set_se b s1 s2 : SH d s1 s2 -> SH d (set_se b s1) (set_se b s2).
Proof. intros H. constructor; skel_cbn; try apply H. skel_eq H. Qed.
(* adjacent_value_allowed_at := the current index (the only value it is ever given) *)
Lemma SH_set_adj_here s1 s2 : SH d s1 s2 ->
  SH d (set_adj (m_index (sc_mark s1)) s1) (set_adj (m_index (sc_mark s2)) s2).
Proof. intros H. constructor; skel_cbn; try apply H; try apply ADJ_here; skel_eq H. Qed.
Lemma SH_set_indent z l s1 s2 : SH d s1 s2 -> SH d (set_indent z l s1) (set_indent z l s2).
Proof. intros H. constructor; skel_cbn; try apply H. skel_eq H. Qed.
(* the flow level may change to anything when the adjacency information is already meaningful (we are inside a
   flow collection), and to 0 in any case; the step 0 -> 1 is [SH_flow_open] below *)
Lemma SH_set_fl n s1 s2 : SH d s1 s2 -> (n = 0%N \/ sc_flow_level s1 <> 0%N) -> SH d (set_fl n s1) (set_fl n s2).
Proof.
  intros H HN. constructor; skel_cbn; try apply H; [|skel_eq H].
  destruct (sh_adj H) as (A1 & A2 & AE). unfold ADJ. split; [exact A1|split; [exact A2|]].
  destruct HN as [->|HN]; [left; reflexivity|]. destruct AE as [AE|AE]; [contradiction|right; exact AE].
Qed.
Lemma SH_set_tp n1 n2 s1 s2 : SH d s1 s2 -> (n1 + sh_k d)%N = n2 -> SH d (set_tp n1 s1) (set_tp n2 s2).
Proof. intros H HN. constructor; skel_cbn; try apply H; try exact HN; skel_eq H. Qed.
Lemma SH_set_ifms l s1 s2 : SH d s1 s2 -> SH d (set_ifms l s1) (set_ifms l s2).
Proof. intros H. constructor; skel_cbn; try apply H. skel_eq H. Qed.
End Upd.

(* 5. The relational calculus *)
Definition swp (d : shift) {A1 A2} (m1 : BM A1) (m2 : BM A2) (Q : A1 -> bst -> A2 -> bst -> Prop) (s1 s2 : bst) : Prop :=
  match m1 s1 with
  | Panic _ => True
  | OutOfFuel => True
  | Ok (a1, t1) => match m2 s2 with
                   | Ok (a2, t2) => Q a1 t1 a2 t2
                   | Err _ _ => False
                   | _ => True
                   end
  | Err e1 k1 => match m2 s2 with
                 | Err e2 k2 => e1 = e2 /\ MS d k1 k2
                 | Ok _ => False
                 | _ => True
                 end
  end.

Definition Qe {A} (P : A -> bst -> bst -> Prop) : A -> bst -> A -> bst -> Prop :=
  fun a1 t1 a2 t2 => a1 = a2 /\ P a1 t1 t2.

Section Calculus.
Variable d : shift.
Local Notation bwp := (swp d).

Lemma bwp_ret {A1 A2} (a1 : A1) (a2 : A2) (Q : A1 -> bst -> A2 -> bst -> Prop) s1 s2 :
  Q a1 s1 a2 s2 -> bwp (ret a1) (ret a2) Q s1 s2.
Proof. exact (lwp_ret (MS d) a1 a2 Q s1 s2). Qed.
Lemma bwp_bind {A1 A2 B1 B2} (m1 : BM A1) (m2 : BM A2) (f1 : A1 -> BM B1) (f2 : A2 -> BM B2)
  (Q : B1 -> bst -> B2 -> bst -> Prop) s1 s2 :
  bwp m1 m2 (fun a1 t1 a2 t2 => bwp (f1 a1) (f2 a2) Q t1 t2) s1 s2 -> bwp (bind m1 f1) (bind m2 f2) Q s1 s2.
Proof. exact (lwp_bind (MS d) m1 m2 f1 f2 Q s1 s2). Qed.
Lemma bwp_bind_e {A B1 B2} (m1 m2 : BM A) (f1 : A -> BM B1) (f2 : A -> BM B2) (Q : B1 -> bst -> B2 -> bst -> Prop) s1 s2 :
  bwp m1 m2 (Qe (fun a t1 t2 => bwp (f1 a) (f2 a) Q t1 t2)) s1 s2 -> bwp (bind m1 f1) (bind m2 f2) Q s1 s2.
Proof. exact (lwp_bind_e (MS d) m1 m2 f1 f2 Q s1 s2). Qed.
Lemma bwp_oof_l {A1 A2} (m2 : BM A2) (Q : A1 -> bst -> A2 -> bst -> Prop) s1 s2 : bwp (@oof strin A1) m2 Q s1 s2.
Proof. exact I. Qed.
Lemma bwp_panic_r {A1 A2} site (m1 : BM A1) (Q : A1 -> bst -> A2 -> bst -> Prop) s1 s2 : bwp m1 (@panic strin A2 site) Q s1 s2.
Proof. exact (lwp_panic_r (MS d) site m1 Q s1 s2). Qed.
Lemma bwp_get (Q : bst -> bst -> bst -> bst -> Prop) s1 s2 : Q s1 s1 s2 s2 -> bwp get get Q s1 s2.
Proof. auto. Qed.
Lemma bwp_modify f1 f2 (Q : unit -> bst -> unit -> bst -> Prop) s1 s2 :
  Q tt (f1 s1) tt (f2 s2) -> bwp (modify f1) (modify f2) Q s1 s2.
Proof. auto. Qed.

Lemma bwp_elim {A1 A2} (m1 : BM A1) (m2 : BM A2) (Q : A1 -> bst -> A2 -> bst -> Prop) s1 s2 : bwp m1 m2 Q s1 s2 ->
  match m1 s1, m2 s2 with
  | Ok (a1, t1), Ok (a2, t2) => Q a1 t1 a2 t2
  | Err e1 k1, Err e2 k2 => e1 = e2 /\ MS d k1 k2
  | Ok _, Err _ _ => False
  | Err _ _, Ok _ => False
  | _, _ => True
  end.
Proof. exact (lwp_elim (MS d) m1 m2 Q s1 s2). Qed.
Lemma bwp_intro {A1 A2} (m1 : BM A1) (m2 : BM A2) (Q : A1 -> bst -> A2 -> bst -> Prop) s1 s2 :
  match m1 s1, m2 s2 with
  | Ok (a1, t1), Ok (a2, t2) => Q a1 t1 a2 t2
  | Err e1 k1, Err e2 k2 => e1 = e2 /\ MS d k1 k2
  | Ok _, Err _ _ => False
  | Err _ _, Ok _ => False
  | _, _ => True
  end -> bwp m1 m2 Q s1 s2.
Proof. exact (lwp_intro (MS d) m1 m2 Q s1 s2). Qed.

Lemma bwp_step_l {A B1 B2} (m : BM A) (f1 : A -> BM B1) (m2 : BM B2) (Q : B1 -> bst -> B2 -> bst -> Prop) s1 s2 a t1 :
  m s1 = Ok (a, t1) -> bwp (f1 a) m2 Q t1 s2 -> bwp (bind m f1) m2 Q s1 s2.
Proof. exact (lwp_step_l (MS d) m f1 m2 Q s1 s2 a t1). Qed.
Lemma bwp_step_r {A B1 B2} (m : BM A) (m1 : BM B1) (f2 : A -> BM B2) (Q : B1 -> bst -> B2 -> bst -> Prop) s1 s2 a t2 :
  m s2 = Ok (a, t2) -> bwp m1 (f2 a) Q s1 t2 -> bwp m1 (bind m f2) Q s1 s2.
Proof. exact (lwp_step_r (MS d) m m1 f2 Q s1 s2 a t2). Qed.
Lemma bwp_eval {A1 A2} (m1 : BM A1) (m2 : BM A2) (Q : A1 -> bst -> A2 -> bst -> Prop) s1 s2 a1 t1 a2 t2 :
  m1 s1 = Ok (a1, t1) -> m2 s2 = Ok (a2, t2) -> Q a1 t1 a2 t2 -> bwp m1 m2 Q s1 s2.
Proof. exact (lwp_eval (MS d) m1 m2 Q s1 s2 a1 t1 a2 t2). Qed.
(* the two runs are given as outcomes: equal outcomes of side 2 may be exchanged *)
Lemma bwp_ext_r {A1 A2} (m1 : BM A1) (m2 m2' : BM A2) (Q : A1 -> bst -> A2 -> bst -> Prop) s1 s2 s2' :
  m2 s2 = m2' s2' -> bwp m1 m2' Q s1 s2' -> bwp m1 m2 Q s1 s2.
Proof. exact (lwp_ext_r (MS d) m1 m2 m2' Q s1 s2 s2'). Qed.
Lemma bwp_ext_l {A1 A2} (m1 m1' : BM A1) (m2 : BM A2) (Q : A1 -> bst -> A2 -> bst -> Prop) s1 s1' s2 :
  m1 s1 = m1' s1' -> bwp m1' m2 Q s1' s2 -> bwp m1 m2 Q s1 s2.
Proof. exact (lwp_ext_l (MS d) m1 m1' m2 Q s1 s1' s2). Qed.
End Calculus.

(* 6. Closed forms of the string back-end's primitives *)
Definition bump (n : nat) (s : bst) : bst := set_in {| si_chars := rm s; si_look := Nat.max (lk s) n |} s.
Definition drop1 (s : bst) : bst := set_in {| si_chars := tl (rm s); si_look := lk s |} s.
Definition dropn (n : nat) (s : bst) : bst := set_in {| si_chars := skipn n (rm s); si_look := lk s |} s.
Definition bl1 (s : bst) : bst := set_mark (adv 1 (sc_mark s)) (drop1 s).
Definition nb1 (s : bst) : bst := set_lws false (bl1 s).
Definition nl1 (s : bst) : bst := set_lws true (set_mark (nlm (sc_mark s)) (drop1 s)).

Lemma look_ok n s : look sops n s = Ok (tt, bump n s). Proof. reflexivity. Qed.
Lemma look_ch_ok s : look_ch sops s = Ok (rn s 0, bump 1 s). Proof. reflexivity. Qed.
Lemma skip_nl_ok s : skip_nl sops s = Ok (tt, nl1 s). Proof. reflexivity. Qed.
Lemma adv_mark_ok n (s : bst) : adv_mark n s = Ok (tt, set_mark (adv n (sc_mark s)) s). Proof. reflexivity. Qed.

Lemma rm_bump n s : rm (bump n s) = rm s. Proof. reflexivity. Qed.
Lemma rm_drop1 s : rm (drop1 s) = tl (rm s). Proof. reflexivity. Qed.
Lemma rm_dropn n s : rm (dropn n s) = skipn n (rm s). Proof. reflexivity. Qed.
Lemma rm_bl1 s : rm (bl1 s) = tl (rm s). Proof. reflexivity. Qed.
Lemma rm_nb1 s : rm (nb1 s) = tl (rm s). Proof. reflexivity. Qed.
Lemma rm_nl1 s : rm (nl1 s) = tl (rm s). Proof. reflexivity. Qed.
Lemma lk_bump n s : lk (bump n s) = Nat.max (lk s) n. Proof. reflexivity. Qed.
Lemma ers_bump n s : ers (bump n s) = ers s. Proof. reflexivity. Qed.
Lemma ers_drop1 s : ers (drop1 s) = ers s. Proof. reflexivity. Qed.
Lemma ers_dropn n s : ers (dropn n s) = ers s. Proof. reflexivity. Qed.

(* skip_linebreak / skip_break, evaluated *)
Definition slb (s : bst) : bst :=
  if ((rn s 0 =? 13) && (rn s 1 =? 10))%N then nl1 (bl1 s) else if is_break (rn s 0) then nl1 s else s.
Definition sbk (s : bst) : bst := if ((rn s 0 =? 13) && (rn s 1 =? 10))%N then nl1 (bl1 s) else nl1 s.
Lemma skip_linebreak_eval s : skip_linebreak sops s = if Nat.ltb (lk s) 2 then Panic 103%N else Ok (tt, slb s).
Proof. exact (ScanLock.skip_linebreak_eval s). Qed.
Lemma skip_break_eval s : skip_break sops s = if is_break (rn s 0) then Ok (tt, sbk s) else Panic 110%N.
Proof. exact (ScanLock.skip_break_eval s). Qed.

(* 7. The input primitives under the relation *)
Lemma max_eqb0 a b n : Nat.eqb b 0 = Nat.eqb a 0 -> Nat.eqb (Nat.max b n) 0 = Nat.eqb (Nat.max a n) 0.
Proof.
  intros H. destruct n as [|n]; [rewrite !Nat.max_0_r; exact H|].
  destruct (Nat.eqb_spec (Nat.max b (S n)) 0); destruct (Nat.eqb_spec (Nat.max a (S n)) 0); try reflexivity; lia.
Qed.

Section Rules.
Variable d : shift.
Local Notation bwp := (swp d).

(* the two sides apply the same function to their inputs and move their marks alike *)
Lemma SH_jump s1 s2 i1 i2 m1 m2 : SH d s1 s2 -> IS i1 i2 -> mark_step d (sc_mark s1) (sc_mark s2) m1 m2 ->
  SH d (set_mark m1 (set_in i1 s1)) (set_mark m2 (set_in i2 s2)).
Proof. intros H HI HM. apply SH_set_mark; [apply SH_set_in; assumption|exact HM]. Qed.

Lemma SH_bump n s1 s2 : SH d s1 s2 -> SH d (bump n s1) (bump n s2).
Proof.
  intros H. unfold bump. apply SH_set_in; [exact H|].
  constructor; cbn [si_chars si_look]; [exact (SH_rm H)|apply max_eqb0; exact (SH_lk0 H)].
Qed.
Lemma SH_drop1' s1 s2 : SH d s1 s2 -> SH d (drop1 s1) (drop1 s2).
Proof.
  intros H. unfold drop1. apply SH_set_in; [exact H|]. constructor; cbn [si_chars si_look].
  - rewrite (SH_rm H). reflexivity.
  - exact (SH_lk0 H).
Qed.
Lemma SH_drop1 s1 s2 : SH d s1 s2 -> rn s1 0 <> 10%N -> SH d (drop1 s1) (drop1 s2).
Proof. intros H _. apply SH_drop1'. exact H. Qed.
Lemma SH_dropn s1 s2 n : SH d s1 s2 -> noLF n (rm s1) -> SH d (dropn n s1) (dropn n s2).
Proof.
  intros H _. unfold dropn. apply SH_set_in; [exact H|]. constructor; cbn [si_chars si_look].
  - rewrite (SH_rm H). reflexivity.
  - exact (SH_lk0 H).
Qed.
Lemma SH_adv n s1 s2 : SH d s1 s2 -> SH d (set_mark (adv n (sc_mark s1)) s1) (set_mark (adv n (sc_mark s2)) s2).
Proof. intros H. apply SH_set_mark; [exact H|]. apply mark_step_adv. exact (sh_mark H). Qed.
Lemma SH_bl1' s1 s2 : SH d s1 s2 -> SH d (bl1 s1) (bl1 s2).
Proof. intros H. unfold bl1. apply (SH_adv 1 (drop1 s1) (drop1 s2)). apply SH_drop1'; assumption. Qed.
Lemma SH_bl1 s1 s2 : SH d s1 s2 -> rn s1 0 <> 10%N -> SH d (bl1 s1) (bl1 s2).
Proof. intros H _. apply SH_bl1'. exact H. Qed.
Lemma SH_nb1' s1 s2 : SH d s1 s2 -> SH d (nb1 s1) (nb1 s2).
Proof. intros H. unfold nb1. apply SH_set_lws. apply SH_bl1'; assumption. Qed.
Lemma SH_nb1 s1 s2 : SH d s1 s2 -> rn s1 0 <> 10%N -> SH d (nb1 s1) (nb1 s2).
Proof. intros H _. apply SH_nb1'. exact H. Qed.
Lemma SH_nl1 s1 s2 : SH d s1 s2 -> SH d (nl1 s1) (nl1 s2).
Proof.
  intros H. unfold nl1. apply SH_set_lws.
  apply (SH_set_mark d _ _ (drop1 s1) (drop1 s2)); [apply SH_drop1'; exact H|].
  apply mark_step_nl0. exact (sh_mark H).
Qed.
Lemma SH_slb s1 s2 : SH d s1 s2 -> SH d (slb s1) (slb s2).
Proof.
  intros H. unfold slb. rewrite !(SH_rn_eq H).
  destruct ((rn s1 0 =? 13) && (rn s1 1 =? 10))%N; [apply SH_nl1; apply SH_bl1'; exact H|].
  destruct (is_break (rn s1 0)); [apply SH_nl1; exact H|exact H].
Qed.
Lemma SH_sbk s1 s2 : SH d s1 s2 -> SH d (sbk s1) (sbk s2).
Proof.
  intros H. unfold sbk. rewrite !(SH_rn_eq H).
  destruct ((rn s1 0 =? 13) && (rn s1 1 =? 10))%N; [apply SH_nl1; apply SH_bl1'; exact H|apply SH_nl1; exact H].
Qed.
(* the step 0 -> 1 of the flow level: what fetch_flow_collection_start does between save_simple_key and the
   skipping of the bracket, as ONE update (the bracket is consumed, so a stale adjacency value stays stale) *)
Lemma SH_flow_open s1 s2 k1 k2 : SH d s1 s2 -> KS d k1 k2 ->
  SH d (nb1 (set_ska true (set_fl (sc_flow_level s1 + 1) (set_sks (k1 :: sc_sks s1) s1))))
       (nb1 (set_ska true (set_fl (sc_flow_level s2 + 1) (set_sks (k2 :: sc_sks s2) s2)))).
Proof.
  intros H HK. pose proof (sh_mark H) as HM.
  constructor; unfold nb1, bl1, drop1, rm, lk; skel_cbn.
  - constructor; cbn [si_chars si_look]; [rewrite (is_chars (sh_in H)); reflexivity|exact (is_look (sh_in H))].
  - apply MS_adv. exact HM.
  - exact (sh_tokens H).
  - constructor; [exact HK|exact (sh_sks H)].
  - eapply ADJ_stale; [exact HM|apply MS_adv; exact HM| |exact (sh_adj H)]. cbn [adv m_index]. lia.
  - exact (sh_tp H).
  - unfold skel. skel_cbn. sh_fwd H. reflexivity.
Qed.

(* the line break: the same characters are consumed on both sides *)
Lemma bwp_skip_nl (Q : unit -> bst -> unit -> bst -> Prop) s1 s2 :
  SH d s1 s2 -> (forall t1 t2, SH d t1 t2 -> rm t1 = tl (rm s1) -> Q tt t1 tt t2) -> bwp (skip_nl sops) (skip_nl sops) Q s1 s2.
Proof.
  intros H HQ. eapply bwp_eval; [apply skip_nl_ok|apply skip_nl_ok|]. apply HQ; [apply SH_nl1; exact H|reflexivity].
Qed.
Lemma bwp_skip_linebreak (Q : unit -> bst -> unit -> bst -> Prop) s1 s2 :
  SH d s1 s2 -> (forall t1 t2, SH d t1 t2 -> rm t1 = rm (slb s1) -> Q tt t1 tt t2) ->
  bwp (skip_linebreak sops) (skip_linebreak sops) Q s1 s2.
Proof.
  intros H HQ. unfold swp. rewrite !skip_linebreak_eval.
  destruct (Nat.ltb (lk s1) 2); [exact I|]. destruct (Nat.ltb (lk s2) 2); [exact I|].
  apply HQ; [apply SH_slb; exact H|reflexivity].
Qed.
Lemma bwp_skip_break (Q : unit -> bst -> unit -> bst -> Prop) s1 s2 :
  SH d s1 s2 ->
  (forall t1 t2, SH d t1 t2 -> is_break (rn s1 0) = true -> rm t1 = rm (sbk s1) -> Q tt t1 tt t2) ->
  bwp (skip_break sops) (skip_break sops) Q s1 s2.
Proof.
  intros H HQ. unfold swp. rewrite !skip_break_eval, (SH_rn_eq H).
  destruct (is_break (rn s1 0)) eqn:E; [|exact I]. apply HQ; [apply SH_sbk; exact H|reflexivity|reflexivity].
Qed.

(* raw_read / buf_is_empty / assert_buflen *)
Lemma bwp_raw_read (Q : option chr -> bst -> option chr -> bst -> Prop) s1 s2 :
  SH d s1 s2 ->
  (forall c t1 t2, SH d t1 t2 -> ers t1 = ers s1 -> ers t2 = ers s2 ->
     match c with
     | Some x => rm s1 = x :: rm t1 /\ is_breakz x = false
     | None => rm t1 = rm s1 /\ is_breakz (rn s1 0) = true
     end -> Q c t1 c t2) ->
  bwp (raw_read sops) (raw_read sops) Q s1 s2.
Proof.
  intros H HQ. unfold swp, raw_read. cbn [raw_read_non_breakz str_ops].
  change (si_chars (sc_in s2)) with (rm s2). rewrite (SH_rm H). change (rm s1) with (si_chars (sc_in s1)).
  change (si_chars (sc_in s1)) with (rm s1).
  assert (HSame : SH d (set_in (sc_in s1) s1) (set_in (sc_in s2) s2)) by (apply SH_set_in; [exact H|exact (sh_in H)]).
  destruct (rm s1) as [|c r] eqn:E1.
  - apply HQ; [exact HSame|reflexivity|reflexivity|]. split; [exact E1|]. unfold rn. rewrite E1. reflexivity.
  - destruct (is_breakz c) eqn:Eb.
    + apply HQ; [exact HSame|reflexivity|reflexivity|]. split; [exact E1|]. unfold rn. rewrite E1. exact Eb.
    + apply HQ; [|reflexivity|reflexivity|split; [reflexivity|exact Eb]].
      apply SH_set_in; [exact H|]. constructor; cbn [si_chars si_look]; [reflexivity|exact (SH_lk0 H)].
Qed.
(* an assertion that fails on either side is a panic: not this proof's concern *)
Lemma bwp_assert_buflen n site (Q : unit -> bst -> unit -> bst -> Prop) s1 s2 :
  SH d s1 s2 -> Q tt s1 tt s2 -> bwp (assert_buflen sops n site) (assert_buflen sops n site) Q s1 s2.
Proof.
  intros H HQ. unfold swp, assert_buflen. cbn [buflen str_ops].
  destruct (Nat.ltb (si_look (sc_in s1)) n); [exact I|]. destruct (Nat.ltb (si_look (sc_in s2)) n); [exact I|exact HQ].
Qed.

(* [SH d] is a lock: side 2 shows the same characters, markers are shifted by [d] *)
Lemma shf_lock : lock b1 (MS d) (SH d).
Proof.
  constructor.
  - exact b1_sees.
  - exact (MS_col d).
  - exact (MS_line_eqb d).
  - intros s1 s2 H. exact (sh_mark H).
  - intros s1 s2 H. exact (sh_tokens H).
  - intros s1 s2 H. exact (sh_skel H).
  - intros s1 s2 H k. exact (SH_rn H k).
  - intros s1 s2 H. exact (SH_lk0 H).
  - intros l1 l2 s1 s2. apply SH_set_tokens.
  - intros b s1 s2. apply SH_set_ska.
  - intros b s1 s2. apply SH_set_lws.
  - intros b s1 s2. apply SH_set_ta.
  - intros b s1 s2. apply SH_set_ss.
  - intros b s1 s2. apply SH_set_se.
  - intros z l s1 s2. apply SH_set_indent.
  - intros l s1 s2. apply SH_set_ifms.
  - intros s1 s2. apply SH_set_adj_here.
  - exact SH_adv.
  - exact SH_bump.
  - exact SH_drop1.
  - intros n s1 s2. apply SH_dropn.
  - intros Q s1 s2 H HQ. apply bwp_skip_linebreak; [exact H|]. intros t1 t2 HT _. apply HQ. exact HT.
  - intros Q s1 s2 H HQ. apply bwp_skip_break; [exact H|]. intros t1 t2 HT _ _. apply HQ. exact HT.
  - exact bwp_raw_read.
Qed.

End Rules.

(* 8. The Input default methods (input.rs): tests on the next characters *)
Definition n2are (s : bst) (a b : chr) : bool := ((rn s 0 =? a) && (rn s 1 =? b))%N.
Definition n3are (s : bst) (a b c : chr) : bool := ((rn s 0 =? a) && (rn s 1 =? b) && (rn s 2 =? c))%N.
Definition docind_val (s : bst) : bool :=
  if is_blank_or_breakz (rn s 3) then (if n3are s 46%N 46%N 46%N then true else n3are s 45%N 45%N 45%N) else false.
Definition docend_val (s : bst) : bool := if n3are s 46%N 46%N 46%N then is_blank_or_breakz (rn s 3) else false.
Definition lit (k : chr) : Prop := ((k =? 10) || (k =? 13))%N = false.
Lemma lit_lf k : lit k -> (10 =? k)%N = false.
Proof. unfold lit. intros H. apply orb_false_iff in H. rewrite N.eqb_sym. tauto. Qed.
Lemma lit_cr k : lit k -> (13 =? k)%N = false.
Proof. unfold lit. intros H. apply orb_false_iff in H. rewrite N.eqb_sym. tauto. Qed.

Section Tests.
Variable d : shift.
Local Notation bwp := (swp d).

(* a value computed from the remaining text alone is the same on both sides *)
Lemma rm_fun {A} (f : bst -> A) s1 s2 : SH d s1 s2 -> (forall s t : bst, rm s = rm t -> f s = f t) -> f s2 = f s1.
Proof. intros H Hf. apply Hf. exact (SH_rm H). Qed.
Lemma docend_brk s1 s2 : SH d s1 s2 -> docend_val s2 = docend_val s1.
Proof. intros H. unfold docend_val, n3are. rewrite !(SH_rn_eq H). reflexivity. Qed.
Lemma docind_brk s1 s2 : SH d s1 s2 -> docind_val s2 = docind_val s1.
Proof. intros H. unfold docind_val, n3are. rewrite !(SH_rn_eq H). reflexivity. Qed.

Lemma bwp_next_char_is c (Q : bool -> bst -> bool -> bst -> Prop) s1 s2 :
  SH d s1 s2 -> lit c -> Q (rn s1 0 =? c)%N s1 (rn s1 0 =? c)%N s2 -> bwp (next_char_is sops c) (next_char_is sops c) Q s1 s2.
Proof. exact (lwp_next_char_is (shf_lock d) c Q s1 s2). Qed.
Lemma bwp_next_2_are a b (Q : bool -> bst -> bool -> bst -> Prop) s1 s2 :
  SH d s1 s2 -> lit a -> lit b -> Q (n2are s1 a b) s1 (n2are s1 a b) s2 -> bwp (next_2_are sops a b) (next_2_are sops a b) Q s1 s2.
Proof. exact (lwp_next_2_are (shf_lock d) a b Q s1 s2). Qed.
Lemma bwp_next_3_are a b c (Q : bool -> bst -> bool -> bst -> Prop) s1 s2 :
  SH d s1 s2 -> lit a -> lit b -> lit c -> Q (n3are s1 a b c) s1 (n3are s1 a b c) s2 ->
  bwp (next_3_are sops a b c) (next_3_are sops a b c) Q s1 s2.
Proof. exact (lwp_next_3_are (shf_lock d) a b c Q s1 s2). Qed.
End Tests.

(* 9. Contracts: the statements that ScanShiftPrim.v, ScanShiftDir.v, ScanShiftFlow.v, ScanShiftPlain.v,
   ScanShiftBlock.v and ScanShiftFetch.v prove.  TWO independent fuels everywhere: a text and the tail of a longer
   text are given different fuels by [run_str] (the texts have different lengths); all loops are in lockstep, so the
   proofs are by induction on the first fuel and case analysis on the second. *)
(* how two scans end *)
Definition ES (d : shift) (e1 e2 : scan_end) : Prop :=
  match e1, e2 with
  | SEnded, SEnded => True
  | SError a k1, SError b k2 => a = b /\ MS d k1 k2
  | SPanic _, _ | _, SPanic _ | SFuel, _ | _, SFuel => True
  | _, _ => False
  end.
Definition proper_end (e : scan_end) : Prop := match e with SEnded | SError _ _ => True | _ => False end.
Definition OTS (d : shift) (o1 o2 : option token) : Prop :=
  match o1, o2 with Some t1, Some t2 => TS d t1 t2 | None, None => True | _, _ => False end.

Section Contracts.
Variable d : shift.
Local Notation bwp := (swp d).

(* [bpost VR]: values related by [VR], states related;  [bpost_al VR]: moreover the next character of side 1 is
   not a line feed, i.e. positions 0 and 1 of the two inputs are aligned (what every scan_* / fetch_* entry needs) *)
Definition bpost {A1 A2} (VR : A1 -> A2 -> Prop) : A1 -> bst -> A2 -> bst -> Prop :=
  fun a1 t1 a2 t2 => VR a1 a2 /\ SH d t1 t2.
Definition bpost_al {A1 A2} (VR : A1 -> A2 -> Prop) : A1 -> bst -> A2 -> bst -> Prop :=
  fun a1 t1 a2 t2 => VR a1 a2 /\ SH d t1 t2 /\ rn t1 0 <> 10%N.

(* the skipping loops (ScanShiftPrim.v) *)
Definition shf_skip_to_next_token : Prop := forall F1 F2 s1 s2, SH d s1 s2 ->
  bwp (skip_to_next_token sops F1) (skip_to_next_token sops F2) (bpost_al eq) s1 s2.
Definition shf_skip_ws_to_eol : Prop := forall F1 F2 stb s1 s2, SH d s1 s2 ->
  bwp (skip_ws_to_eol sops F1 stb) (skip_ws_to_eol sops F2 stb) (bpost eq) s1 s2.
Definition shf_skip_yaml_whitespace : Prop := forall F1 F2 s1 s2, SH d s1 s2 ->
  bwp (skip_yaml_whitespace sops F1) (skip_yaml_whitespace sops F2) (bpost_al eq) s1 s2.

(* scanners: entered at a character that is not a line feed; the same token up to [MS d] *)
Definition shf_scan_directive : Prop := forall F1 F2 s1 s2, SH d s1 s2 -> rn s1 0 <> 10%N ->
  bwp (scan_directive sops F1) (scan_directive sops F2) (bpost (TS d)) s1 s2.
Definition shf_scan_tag : Prop := forall F1 F2 s1 s2, SH d s1 s2 -> rn s1 0 <> 10%N ->
  bwp (scan_tag sops F1) (scan_tag sops F2) (bpost (TS d)) s1 s2.
Definition shf_scan_anchor : Prop := forall F1 F2 alias s1 s2, SH d s1 s2 -> rn s1 0 <> 10%N ->
  bwp (scan_anchor sops F1 alias) (scan_anchor sops F2 alias) (bpost (TS d)) s1 s2.
Definition shf_scan_flow_scalar : Prop := forall F1 F2 single s1 s2, SH d s1 s2 -> rn s1 0 <> 10%N ->
  bwp (scan_flow_scalar sops F1 single) (scan_flow_scalar sops F2 single) (bpost (TS d)) s1 s2.
Definition shf_scan_plain_scalar : Prop := forall F1 F2 s1 s2, SH d s1 s2 -> rn s1 0 <> 10%N ->
  bwp (scan_plain_scalar sops F1) (scan_plain_scalar sops F2) (bpost (TS d)) s1 s2.
Definition shf_scan_block_scalar : Prop := forall F1 F2 literal s1 s2, SH d s1 s2 -> rn s1 0 <> 10%N ->
  bwp (scan_block_scalar sops F1 literal) (scan_block_scalar sops F2 literal) (bpost (TS d)) s1 s2.

(* the token level (ScanShiftFetch.v) *)
Definition shf_fetch_stream_start : Prop := forall s1 s2, SH d s1 s2 ->
  bwp fetch_stream_start fetch_stream_start (bpost eq) s1 s2.
Definition shf_fetch_stream_end : Prop := forall s1 s2, SH d s1 s2 ->
  bwp fetch_stream_end fetch_stream_end (bpost eq) s1 s2.
Definition shf_fetch_directive : Prop := forall F1 F2 s1 s2, SH d s1 s2 -> rn s1 0 <> 10%N ->
  bwp (fetch_directive sops F1) (fetch_directive sops F2) (bpost eq) s1 s2.
Definition shf_fetch_tag : Prop := forall F1 F2 s1 s2, SH d s1 s2 -> rn s1 0 <> 10%N ->
  bwp (fetch_tag sops F1) (fetch_tag sops F2) (bpost eq) s1 s2.
Definition shf_fetch_anchor : Prop := forall F1 F2 alias s1 s2, SH d s1 s2 -> rn s1 0 <> 10%N ->
  bwp (fetch_anchor sops F1 alias) (fetch_anchor sops F2 alias) (bpost eq) s1 s2.
Definition shf_fetch_flow_collection_start : Prop := forall F1 F2 seq s1 s2, SH d s1 s2 -> rn s1 0 <> 10%N ->
  bwp (fetch_flow_collection_start sops F1 seq) (fetch_flow_collection_start sops F2 seq) (bpost eq) s1 s2.
Definition shf_fetch_flow_collection_end : Prop := forall F1 F2 seq s1 s2, SH d s1 s2 -> rn s1 0 <> 10%N ->
  bwp (fetch_flow_collection_end sops F1 seq) (fetch_flow_collection_end sops F2 seq) (bpost eq) s1 s2.
Definition shf_fetch_flow_entry : Prop := forall F1 F2 s1 s2, SH d s1 s2 -> rn s1 0 <> 10%N ->
  bwp (fetch_flow_entry sops F1) (fetch_flow_entry sops F2) (bpost eq) s1 s2.
Definition shf_fetch_block_entry : Prop := forall F1 F2 s1 s2, SH d s1 s2 -> rn s1 0 <> 10%N ->
  bwp (fetch_block_entry sops F1) (fetch_block_entry sops F2) (bpost eq) s1 s2.
(* three characters are consumed blindly: they are the marker just recognised, none of them a line feed *)
Definition shf_fetch_document_indicator : Prop := forall t s1 s2, SH d s1 s2 -> noLF 3 (rm s1) ->
  bwp (fetch_document_indicator sops t) (fetch_document_indicator sops t) (bpost eq) s1 s2.
Definition shf_fetch_block_scalar : Prop := forall F1 F2 literal s1 s2, SH d s1 s2 -> rn s1 0 <> 10%N ->
  bwp (fetch_block_scalar sops F1 literal) (fetch_block_scalar sops F2 literal) (bpost eq) s1 s2.
Definition shf_fetch_flow_scalar : Prop := forall F1 F2 single s1 s2, SH d s1 s2 -> rn s1 0 <> 10%N ->
  bwp (fetch_flow_scalar sops F1 single) (fetch_flow_scalar sops F2 single) (bpost eq) s1 s2.
Definition shf_fetch_plain_scalar : Prop := forall F1 F2 s1 s2, SH d s1 s2 -> rn s1 0 <> 10%N ->
  bwp (fetch_plain_scalar sops F1) (fetch_plain_scalar sops F2) (bpost eq) s1 s2.
Definition shf_fetch_key : Prop := forall F1 F2 s1 s2, SH d s1 s2 -> rn s1 0 <> 10%N ->
  bwp (fetch_key sops F1) (fetch_key sops F2) (bpost eq) s1 s2.
Definition shf_fetch_value : Prop := forall F1 F2 s1 s2, SH d s1 s2 -> rn s1 0 <> 10%N ->
  bwp (fetch_value sops F1) (fetch_value sops F2) (bpost eq) s1 s2.
Definition shf_fetch_flow_value : Prop := forall F1 F2 s1 s2, SH d s1 s2 -> rn s1 0 <> 10%N ->
  (0 <? sc_flow_level s1)%N = true ->
  bwp (fetch_flow_value sops F1) (fetch_flow_value sops F2) (bpost eq) s1 s2.
Definition shf_fetch_next_token : Prop := forall F1 F2 s1 s2, SH d s1 s2 ->
  bwp (fetch_next_token sops F1) (fetch_next_token sops F2) (bpost eq) s1 s2.
Definition shf_fetch_more_tokens : Prop := forall F1 F2 n1 n2 s1 s2, SH d s1 s2 ->
  bwp (fetch_more_tokens sops F1 n1) (fetch_more_tokens sops F2 n2) (bpost eq) s1 s2.
Definition shf_next_token : Prop := forall F1 F2 s1 s2, SH d s1 s2 ->
  bwp (next_token sops F1) (next_token sops F2) (bpost (OTS d)) s1 s2.
(* the whole scan: the two ends are related, and when both are proper (ended / error) so are the token lists *)
Definition shf_scan_all : Prop := forall F1 F2 n1 n2 s1 s2 acc1 acc2, SH d s1 s2 -> Forall2 (TS d) acc1 acc2 ->
  ES d (snd (scan_all sops F1 n1 s1 acc1)) (snd (scan_all sops F2 n2 s2 acc2))
  /\ (proper_end (snd (scan_all sops F1 n1 s1 acc1)) -> proper_end (snd (scan_all sops F2 n2 s2 acc2)) ->
      Forall2 (TS d) (fst (scan_all sops F1 n1 s1 acc1)) (fst (scan_all sops F2 n2 s2 acc2))).

End Contracts.
