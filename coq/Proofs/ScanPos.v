(* Position exactness of the scanner model over the string input (C12): the scanner's mark is, at every moment,
   the true position of the number of characters consumed so far - for every NUL-free input - and every token
   span is made of such marks.  Partial-correctness calculus [swp]: errors, fuel exhaustion and (separately
   excluded, see ScanSafe*.v) panics are not the concern here. *)
From Coq Require Import List NArith ZArith Bool Arith Lia.
Import ListNotations.
Require Import Parser SBase SPrim SDir SScalar SFetch Positions.
Require ScanFrame.
Local Open Scope nat_scope.

Notation sst := (sc strin).
Notation SM := (@M strin).

(* remaining characters *)
Definition rem (s : sst) : list chr := si_chars (sc_in s).
Definition rnth (s : sst) (i : nat) : chr := nth i (rem s) 0%N.

Section Calculus.
(* [E]: what must hold of the marker of an error the computation may end with *)
Variable E : marker -> Prop.

Definition swp {A} (m : SM A) (Q : A -> sst -> Prop) (s : sst) : Prop :=
  match m s with
  | Ok (a, s') => Q a s'
  | Err _ mk => E mk
  | _ => True
  end.

Lemma swp_ret {A} (a : A) (Q : A -> sst -> Prop) s : Q a s -> swp (ret a) Q s.
Proof. auto. Qed.
Lemma swp_bind {A B} (m : SM A) (f : A -> SM B) (Q : B -> sst -> Prop) s :
  swp m (fun a s' => swp (f a) Q s') s -> swp (bind m f) Q s.
Proof. unfold swp, bind. destruct (m s) as [[a s']| | |]; auto. Qed.
Lemma swp_mono {A} (m : SM A) (Q Q' : A -> sst -> Prop) s :
  swp m Q s -> (forall a s', Q a s' -> Q' a s') -> swp m Q' s.
Proof. unfold swp. destruct (m s) as [[a s']| | |]; auto. Qed.
Lemma swp_err_weaken_dummy : True. Proof. exact I. Qed.
Lemma swp_fail {A} site mk (Q : A -> sst -> Prop) s : E mk -> swp (@fail strin A site mk) Q s.
Proof. intros H. exact H. Qed.
Lemma swp_panic {A} site (Q : A -> sst -> Prop) s : swp (@panic strin A site) Q s.
Proof. exact I. Qed.
Lemma swp_oof {A} (Q : A -> sst -> Prop) s : swp (@oof strin A) Q s.
Proof. exact I. Qed.
Lemma swp_get (Q : sst -> sst -> Prop) s : Q s s -> swp get Q s.
Proof. auto. Qed.
Lemma swp_gets {A} (f : sst -> A) (Q : A -> sst -> Prop) s : Q (f s) s -> swp (gets f) Q s.
Proof. auto. Qed.
Lemma swp_put s0 (Q : unit -> sst -> Prop) s : Q tt s0 -> swp (put s0) Q s.
Proof. auto. Qed.
Lemma swp_modify f (Q : unit -> sst -> Prop) s : Q tt (f s) -> swp (modify f) Q s.
Proof. auto. Qed.

(* input primitives of the string back-end: lookahead only bumps the counter; peek reads (NUL beyond the end);
   skip drops one character *)
Lemma swp_look n (Q : unit -> sst -> Prop) s :
  (forall s', rem s' = rem s -> s' = set_in (sc_in s') s -> Q tt s') -> swp (look str_ops n) Q s.
Proof. intros HQ. unfold swp, look. cbn. apply HQ; reflexivity. Qed.
Lemma swp_peekn n (Q : chr -> sst -> Prop) s : Q (rnth s n) s -> swp (peekn str_ops n) Q s.
Proof. intros HQ. exact HQ. Qed.
Lemma swp_peek (Q : chr -> sst -> Prop) s : Q (rnth s 0) s -> swp (SPrim.peek str_ops) Q s.
Proof. intros HQ. exact HQ. Qed.
Lemma swp_look_ch (Q : chr -> sst -> Prop) s :
  (forall s', rem s' = rem s -> s' = set_in (sc_in s') s -> Q (rnth s' 0) s') -> swp (look_ch str_ops) Q s.
Proof. intros HQ. unfold look_ch. apply swp_bind. apply swp_look. intros s' H1 H2. apply swp_peek. apply HQ; assumption. Qed.
Lemma swp_in_skip (Q : unit -> sst -> Prop) s :
  (forall s', rem s' = tl (rem s) -> s' = set_in (sc_in s') s -> Q tt s') -> swp (in_skip str_ops) Q s.
Proof. intros HQ. unfold swp, in_skip, modify. cbn. apply HQ; reflexivity. Qed.
Lemma swp_in_skip_n n (Q : unit -> sst -> Prop) s :
  (forall s', rem s' = skipn n (rem s) -> s' = set_in (sc_in s') s -> Q tt s') -> swp (in_skip_n str_ops n) Q s.
Proof. intros HQ. unfold swp, in_skip_n. cbn. apply HQ; reflexivity. Qed.
Lemma swp_raw_read (Q : option chr -> sst -> Prop) s :
  (forall s', match rem s with
              | c :: r => if is_breakz c then rem s' = rem s else True
              | [] => rem s' = rem s
              end -> True) ->
  match rem s with
  | [] => Q None s
  | c :: r => if is_breakz c then Q None s
              else forall s', rem s' = r -> s' = set_in (sc_in s') s -> Q (Some c) s'
  end -> swp (raw_read str_ops) Q s.
Proof.
  intros _ HQ. unfold swp, raw_read. cbn. unfold rem in HQ. destruct (si_chars (sc_in s)) as [|c r]; [destruct s; exact HQ|].
  destruct (is_breakz c); [destruct s; exact HQ|]. apply HQ; reflexivity.
Qed.
Lemma swp_buf_is_empty (Q : bool -> sst -> Prop) s : (forall b, Q b s) -> swp (buf_is_empty str_ops) Q s.
Proof. intros HQ. apply HQ. Qed.
Lemma swp_assert_buflen n site (Q : unit -> sst -> Prop) s : Q tt s -> swp (assert_buflen str_ops n site) Q s.
Proof. intros HQ. unfold swp, assert_buflen. destruct (Nat.ltb _ n); [exact I|exact HQ]. Qed.
End Calculus.

(* case analysis on the test of a conditional program *)
Ltac dif := match goal with |- swp _ (if ?b then _ else _) _ _ => destruct b end.
Ltac difE E := match goal with |- swp _ (if ?b then _ else _) _ _ => destruct b eqn:E end.

(* the position invariant *)
Section Pos.
Variable orig : list chr.
Hypothesis no_nul : Forall (fun c => c <> 0%N) orig.

(* [pre] characters have been consumed; the mark is the true position after them *)
Definition MarkAt (pre : list chr) (s : sst) : Prop :=
  orig = pre ++ rem s
  /\ m_index (sc_mark s) = N.of_nat (length pre)
  /\ (m_line (sc_mark s), m_col (sc_mark s)) = pos_go orig (length pre) 1 0.
Definition MarkOK (s : sst) : Prop := exists pre, MarkAt pre s.

(* a marker is a true position of [orig] *)
Definition true_mark (m : marker) : Prop := marker_ok orig (m_index m) (m_line m) (m_col m) = true.
Definition true_span (sp : span) : Prop := true_mark (sp_start sp) /\ true_mark (sp_end sp).
Definition true_tok (t : token) : Prop := true_span (fst t).

Lemma markok_true s : MarkOK s -> true_mark (sc_mark s).
Proof.
  intros [pre (E & I & P)]. unfold true_mark, marker_ok. rewrite I.
  apply andb_true_iff. split.
  - apply N.leb_le. rewrite E, app_length. lia.
  - apply orb_true_iff. right. unfold pos_at. rewrite Nat2N.id.
    rewrite <- P. rewrite !N.eqb_refl. reflexivity.
Qed.

(* one-character steps of the recount *)
Lemma pos_go_0 (s : list chr) l k : pos_go s 0 l k = (l, k).
Proof. destruct s; reflexivity. Qed.

Definition starts_lf (l : list chr) : bool := match l with 10%N :: _ => true | _ => false end.
Lemma match_lf {A} (l : list chr) (a b : A) : match l with 10%N :: _ => a | _ => b end = if starts_lf l then a else b.
Proof.
  destruct l as [|y r]; [reflexivity|]. destruct y as [|p]; [reflexivity|].
  repeat (destruct p as [p|p|]; try reflexivity).
Qed.

Lemma pos_go_S (x : chr) (r : list chr) n l k :
  pos_go (x :: r) (S n) l k =
  if (x =? 13)%N then (if starts_lf r then pos_go r n l (k + 1)%N else pos_go r n (l + 1)%N 0%N)
  else if (x =? 10)%N then pos_go r n (l + 1)%N 0%N else pos_go r n l (k + 1)%N.
Proof. cbn [pos_go]. rewrite match_lf. reflexivity. Qed.

Lemma pos_go_app_step pre c rest l0 k0 :
  pos_go (pre ++ c :: rest) (S (length pre)) l0 k0 =
  let '(l, k) := pos_go (pre ++ c :: rest) (length pre) l0 k0 in
  if (c =? 13)%N then (if starts_lf rest then (l, (k + 1)%N) else ((l + 1)%N, 0%N))
  else if (c =? 10)%N then ((l + 1)%N, 0%N) else (l, (k + 1)%N).
Proof.
  revert l0 k0; induction pre as [|x pre IH]; intros l0 k0.
  - cbn [app length]. rewrite pos_go_S, !pos_go_0.
    destruct (c =? 13)%N; [destruct (starts_lf rest); reflexivity|]. destruct (c =? 10)%N; reflexivity.
  - cbn [app length]. rewrite !pos_go_S.
    destruct (x =? 13)%N; [destruct (starts_lf (pre ++ c :: rest)); apply IH|]. destruct (x =? 10)%N; apply IH.
Qed.

(* consuming one ordinary character (not a break): index and column advance by one *)
Lemma markat_step_plain pre c r s s' :
  MarkAt pre s -> rem s = c :: r -> is_break c = false ->
  rem s' = r -> sc_mark s' = adv 1 (sc_mark s) -> MarkAt (pre ++ [c]) s'.
Proof.
  intros (E & I & P) Hr Hb Hr' Hm. unfold MarkAt. rewrite Hr', Hm. cbn [adv m_index m_line m_col].
  rewrite Hr in E. split; [rewrite <- app_assoc; exact E|]. split; [rewrite app_length, I; cbn; lia|].
  rewrite app_length. cbn [length]. rewrite Nat.add_1_r. rewrite E in P |- *. rewrite pos_go_app_step. match goal with |- _ = (let '(l, k) := ?Y in _) => replace Y with (m_line (sc_mark s), m_col (sc_mark s)) by (exact P) end.
  unfold is_break in Hb. apply orb_false_iff in Hb as [H10 H13]. rewrite H13, H10. reflexivity.
Qed.

(* consuming LF, or a CR that is not followed by LF: a new line *)
Lemma markat_step_nl pre c r s s' :
  MarkAt pre s -> rem s = c :: r -> (c = 10%N \/ (c = 13%N /\ hd 0%N r <> 10%N)) ->
  rem s' = r -> sc_mark s' = nlm (sc_mark s) -> MarkAt (pre ++ [c]) s'.
Proof.
  intros (E & I & P) Hr Hc Hr' Hm. unfold MarkAt. rewrite Hr', Hm. cbn [nlm m_index m_line m_col].
  rewrite Hr in E. split; [rewrite <- app_assoc; exact E|]. split; [rewrite app_length, I; cbn; lia|].
  rewrite app_length. cbn [length]. rewrite Nat.add_1_r. rewrite E in P |- *. rewrite pos_go_app_step. match goal with |- _ = (let '(l, k) := ?Y in _) => replace Y with (m_line (sc_mark s), m_col (sc_mark s)) by (exact P) end.
  destruct Hc as [->|[-> Hn]]; [reflexivity|]. change (13 =? 13)%N with true. cbv iota.
  assert (Hs : starts_lf r = false).
  { destruct r as [|y r']; [reflexivity|]. cbn in Hn. unfold starts_lf. destruct y as [|p]; [reflexivity|].
    repeat (destruct p as [p|p|]; try reflexivity). congruence. }
  rewrite Hs. reflexivity.
Qed.

(* consuming the CR of a CR LF pair: still on the old line, one column further *)
Lemma markat_step_cr_of_crlf pre r s s' :
  MarkAt pre s -> rem s = 13%N :: 10%N :: r ->
  rem s' = 10%N :: r -> sc_mark s' = adv 1 (sc_mark s) -> MarkAt (pre ++ [13%N]) s'.
Proof.
  intros (E & I & P) Hr Hr' Hm. unfold MarkAt. rewrite Hr', Hm. cbn [adv m_index m_line m_col].
  rewrite Hr in E. split; [rewrite <- app_assoc; exact E|]. split; [rewrite app_length, I; cbn; lia|].
  rewrite app_length. cbn [length]. rewrite Nat.add_1_r. rewrite E in P |- *. rewrite pos_go_app_step. match goal with |- _ = (let '(l, k) := ?Y in _) => replace Y with (m_line (sc_mark s), m_col (sc_mark s)) by (exact P) end.
  reflexivity.
Qed.

(* characters of a NUL-free input that are still to come are never NUL: a NUL seen by peek is the end *)
Lemma rem_no_nul pre s : MarkAt pre s -> Forall (fun c => c <> 0%N) (rem s).
Proof.
  intros (E & _). rewrite E in no_nul. apply Forall_app in no_nul. tauto.
Qed.
Lemma peek_z_is_end pre s i : MarkAt pre s -> rnth s i = 0%N -> length (rem s) <= i.
Proof.
  intros HM Hz. pose proof (rem_no_nul pre s HM) as HF. unfold rnth in Hz.
  destruct (Nat.lt_ge_cases i (length (rem s))) as [Hlt|Hge]; [|exact Hge].
  exfalso. rewrite Forall_forall in HF. apply (HF (nth i (rem s) 0%N)); [apply nth_In; exact Hlt|exact Hz].
Qed.
End Pos.

(* rules for the mark primitives, under the position invariant *)
Section PosRules.
Variable orig : list chr.
Hypothesis no_nul : Forall (fun c => c <> 0%N) orig.
Notation E := (true_mark orig).
Notation pwp := (swp (true_mark orig)).
Notation MarkAt := (MarkAt orig).
Notation MarkOK := (MarkOK orig).

(* what the character-level functions leave alone *)
Definition pkeeps (s s' : sst) : Prop := sc_tokens s' = sc_tokens s /\ sc_sks s' = sc_sks s /\ sc_tokens_parsed s' = sc_tokens_parsed s.
Lemma pkeeps_refl s : pkeeps s s. Proof. repeat split. Qed.
Lemma pkeeps_trans a b c : pkeeps a b -> pkeeps b c -> pkeeps a c.
Proof. intros (A1 & A2 & A3) (B1 & B2 & B3). repeat split; congruence. Qed.

(* The [pkeeps] part of a contract is not walked: every character-level scanner is a frame (Proofs/ScanFrame.v),
   so its postcondition may assume it. *)
Lemma frame_pkeeps s s' : ScanFrame.frame s s' -> pkeeps s s'.
Proof. intros (Ks & _ & _ & Kt & Kp & _). repeat split; assumption. Qed.
Lemma swp_pkeeps E0 {A} (m : SM A) (Q : A -> sst -> Prop) s :
  ScanFrame.Fr m -> swp E0 m (fun a s' => pkeeps s s' -> Q a s') s -> swp E0 m Q s.
Proof.
  intros HF. unfold swp. destruct (m s) as [[a s']| | |] eqn:Em; auto.
  intros H. exact (H (frame_pkeeps s s' (HF s a s' Em))).
Qed.

Lemma in_keeps s s' : s' = set_in (sc_in s') s -> pkeeps s s' /\ sc_mark s' = sc_mark s.
Proof. intros ->. cbn. repeat split. Qed.

(* errors raised at the current mark are at a true position *)
Lemma markok_err s : MarkOK s -> E (sc_mark s).
Proof. apply markok_true. Qed.

(* skip one ordinary (non-break) character: skip_blank, skip_non_blank *)
Lemma pwp_skip_plain (k : SM unit) pre c r (Q : unit -> sst -> Prop) s :
  (k = skip_blank str_ops \/ k = skip_non_blank str_ops) ->
  MarkAt pre s -> rem s = c :: r -> is_break c = false ->
  (forall s', MarkAt (pre ++ [c]) s' -> rem s' = r -> pkeeps s s' -> Q tt s') -> pwp k Q s.
Proof.
  intros Hk HM Hr Hb HQ. destruct Hk as [-> | ->].
  - unfold skip_blank. apply swp_bind. apply swp_in_skip. intros s1 R1 F1. unfold adv_mark. apply swp_modify.
    destruct (in_keeps _ _ F1) as [K1 M1]. apply HQ.
    + eapply markat_step_plain; [exact HM|exact Hr|exact Hb| |].
      * cbn. unfold rem in *. cbn. rewrite R1, Hr. reflexivity.
      * cbn. rewrite M1. reflexivity.
    + unfold rem in *. cbn. rewrite R1, Hr. reflexivity.
    + destruct K1 as (A & B & C). repeat split; cbn; assumption.
  - unfold skip_non_blank. apply swp_bind. apply swp_in_skip. intros s1 R1 F1.
    apply swp_bind. unfold adv_mark. apply swp_modify. apply swp_modify.
    destruct (in_keeps _ _ F1) as [K1 M1]. apply HQ.
    + eapply markat_step_plain; [exact HM|exact Hr|exact Hb| |].
      * unfold rem in *. cbn. rewrite R1, Hr. reflexivity.
      * cbn. rewrite M1. reflexivity.
    + unfold rem in *. cbn. rewrite R1, Hr. reflexivity.
    + destruct K1 as (A & B & C). repeat split; cbn; assumption.
Qed.

(* skip_nl on LF or on a CR not followed by LF *)
Lemma pwp_skip_nl pre c r (Q : unit -> sst -> Prop) s :
  MarkAt pre s -> rem s = c :: r -> (c = 10%N \/ (c = 13%N /\ hd 0%N r <> 10%N)) ->
  (forall s', MarkAt (pre ++ [c]) s' -> rem s' = r -> pkeeps s s' -> Q tt s') -> pwp (skip_nl str_ops) Q s.
Proof.
  intros HM Hr Hc HQ. unfold skip_nl. apply swp_bind. apply swp_in_skip. intros s1 R1 F1. apply swp_modify.
  destruct (in_keeps _ _ F1) as [K1 M1]. apply HQ.
  - eapply markat_step_nl; [exact HM|exact Hr|exact Hc| |].
    + unfold rem in *. cbn. rewrite R1, Hr. reflexivity.
    + cbn. rewrite M1. reflexivity.
  - unfold rem in *. cbn. rewrite R1, Hr. reflexivity.
  - destruct K1 as (A & B & C). repeat split; cbn; assumption.
Qed.

(* skip_blank on the CR of a CR LF pair (skip_break / skip_linebreak do this) *)
Lemma pwp_skip_cr pre r (Q : unit -> sst -> Prop) s :
  MarkAt pre s -> rem s = 13%N :: 10%N :: r ->
  (forall s', MarkAt (pre ++ [13%N]) s' -> rem s' = 10%N :: r -> pkeeps s s' -> Q tt s') -> pwp (skip_blank str_ops) Q s.
Proof.
  intros HM Hr HQ. unfold skip_blank. apply swp_bind. apply swp_in_skip. intros s1 R1 F1. unfold adv_mark. apply swp_modify.
  destruct (in_keeps _ _ F1) as [K1 M1]. apply HQ.
  - eapply markat_step_cr_of_crlf; [exact HM|exact Hr| |].
    + unfold rem in *. cbn. rewrite R1, Hr. reflexivity.
    + cbn. rewrite M1. reflexivity.
  - unfold rem in *. cbn. rewrite R1, Hr. reflexivity.
  - destruct K1 as (A & B & C). repeat split; cbn; assumption.
Qed.

(* a whole line break at the head of the remaining input: LF, CR, or CR LF, consumed as one unit by skip_break *)
Definition is_break_unit (b : list chr) : Prop := b = [10%N] \/ b = [13%N] \/ b = [13%N; 10%N].

Lemma pwp_skip_break pre (Q : unit -> sst -> Prop) s :
  MarkAt pre s -> is_break (rnth s 0) = true ->
  (forall s' b rest, rem s = b ++ rest -> is_break_unit b -> (b = [13%N] -> hd 0%N rest <> 10%N) ->
                     MarkAt (pre ++ b) s' -> rem s' = rest -> pkeeps s s' -> Q tt s') ->
  pwp (skip_break str_ops) Q s.
Proof.
  intros HM Hb HQ. unfold skip_break.
  apply swp_bind. apply swp_peek. apply swp_bind. apply swp_peekn. rewrite Hb. apply swp_bind. apply swp_ret.
  unfold rnth in *. destruct (rem s) as [|c r] eqn:Hr; [cbn in Hb; discriminate|]. cbn [nth] in *.
  unfold is_break in Hb. apply orb_true_iff in Hb. apply swp_bind.
  destruct (N.eqb_spec c 13) as [->|Hn13].
  - destruct r as [|d r']; cbn [nth].
    + change ((13 =? 13)%N && (0 =? 10)%N) with false. apply swp_ret.
      eapply pwp_skip_nl; [exact HM|exact Hr|right; split; [reflexivity|cbn; discriminate]|].
      intros s' M' R' K'. apply (HQ s' [13%N] []); auto; [right; left; reflexivity|cbn; discriminate].
    + destruct (N.eqb_spec d 10) as [->|Hn10].
      * change ((13 =? 13)%N && (10 =? 10)%N) with true.
        eapply (pwp_skip_cr pre r'); [exact HM|exact Hr|].
        intros s1 M1 R1 K1. eapply pwp_skip_nl; [exact M1|exact R1|left; reflexivity|].
        intros s2 M2 R2 K2. apply (HQ s2 [13%N; 10%N] r'); auto.
        -- right; right; reflexivity.
        -- discriminate.
        -- rewrite <- app_assoc in M2. exact M2.
        -- eapply pkeeps_trans; eauto.
      * cbn [andb]. apply swp_ret.
        eapply pwp_skip_nl; [exact HM|exact Hr|right; split; [reflexivity|cbn; exact Hn10]|].
        intros s' M' R' K'. apply (HQ s' [13%N] (d :: r')); auto; [right; left; reflexivity].
  - assert (Ec : c = 10%N) by (destruct Hb as [H|H]; [apply N.eqb_eq in H; exact H|discriminate H]). subst c.
    change ((10 =? 13)%N && (nth 1 (10%N :: r) 0%N =? 10)%N) with false. apply swp_ret.
    eapply pwp_skip_nl; [exact HM|exact Hr|left; reflexivity|].
    intros s' M' R' K'. apply (HQ s' [10%N] r); auto; [left; reflexivity|discriminate].
Qed.
End PosRules.
