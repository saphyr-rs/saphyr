(* C04 — plain scalars: scan_plain_scalar (Model/SScalar.v) over the string input returns exactly the text that
   the specification (Spec/FlowFold.v: plain_layout_wf / plain_render / plain_text) assigns to the presentation. *)
From Coq Require Import List NArith ZArith Bool Arith Lia.
Import ListNotations.
Require Import Parser SBase SPrim SDir SScalar SFetch Pipe FlowFold FlowScalarProofs ListKit.
Open Scope N_scope.

Arguments N.add : simpl never.
Arguments N.sub : simpl never.
Arguments N.mul : simpl never.
Arguments N.eqb : simpl never.
Arguments N.ltb : simpl never.
Arguments N.leb : simpl never.
Arguments Nat.max : simpl never.
Arguments Nat.leb : simpl never.
Arguments Nat.ltb : simpl never.
Arguments Nat.sub : simpl never.
Open Scope mon_scope.

(* primitives on states in normal form (st_with of FlowScalarProofs) *)
Lemma mark_st s0 c l m w : mark (st_with s0 c l m w) = Ok (m, st_with s0 c l m w).
Proof. reflexivity. Qed.
Lemma set_lws_st b s0 c l m w : modify (set_lws b) (st_with s0 c l m w) = Ok (tt, st_with s0 c l m b).
Proof. reflexivity. Qed.
Lemma look_noop n s0 c l m w : (n <= l)%nat -> look str_ops n (st_with s0 c l m w) = Ok (tt, st_with s0 c l m w).
Proof. intros H. rewrite look_st. rewrite (Nat.max_l l n) by exact H. reflexivity. Qed.
Lemma nlm_col m : m_col (nlm m) = 0.
Proof. reflexivity. Qed.

(* a break written LF, CR or CR LF: where the mark is afterwards; a CR must not be followed by a LF of its own *)
Definition nl_mark (k : nl_kind) (m : marker) : marker := match k with NlCRLF => nlm (adv 1 m) | _ => nlm m end.
Lemma nl_mark_col k m : m_col (nl_mark k m) = 0.
Proof. destruct k; reflexivity. Qed.
Definition cr_ok (k : nl_kind) (r : list N) : Prop := k = NlCR -> (nth 0 r 0 =? 10) = false.
Lemma skip_break_nl s0 k r l m w : cr_ok k r ->
  skip_break str_ops (st_with s0 (nl_src k ++ r) l m w) = Ok (tt, st_with s0 r l (nl_mark k m) true).
Proof.
  intros H. destruct k; [reflexivity| |reflexivity].
  unfold skip_break, peek. cbn [nl_src app]. mstep (peekn_st 0 s0 (13 :: r) l m w). mstep (peekn_st 1 s0 (13 :: r) l m w).
  cbn [nth]. rewrite (H eq_refl). reflexivity.
Qed.
Lemma nl_head k r : is_blank (nth 0 (nl_src k ++ r) 0) = false /\ is_break (nth 0 (nl_src k ++ r) 0) = true.
Proof. destruct k; split; reflexivity. Qed.
Lemma nl_src_len k : (1 <= length (nl_src k))%nat.
Proof. destruct k; cbn; lia. Qed.
Lemma cr_ok_blanks k bs x r : forallb is_sp bs = true -> is_break x = false -> cr_ok k (bs ++ x :: r).
Proof.
  intros Hb Hx _. destruct bs as [|b bs].
  - cbn [app nth]. unfold is_break in Hx. apply orb_false_elim in Hx. tauto.
  - cbn [forallb] in Hb. apply andb_prop in Hb. destruct Hb as [Hb _]. cbn [app nth].
    destruct (blank_cases b Hb) as [->| ->]; reflexivity.
Qed.
Lemma cr_ok_flat k es r : Forall (fun e => forallb is_sp e = true) es -> cr_ok k r ->
  cr_ok k (flat_map (fun e => e ++ nl_src k) es ++ r).
Proof.
  intros Hes Hr Hk. destruct es as [|e es]; [exact (Hr Hk)|]. inversion Hes as [|? ? He _]; subst.
  cbn [flat_map]. rewrite <- !app_assoc. destruct e as [|c e].
  - cbn [app nl_src nth]. reflexivity.
  - cbn [forallb] in He. apply andb_prop in He. destruct He as [Hc _]. cbn [app nth].
    destruct (blank_cases c Hc) as [->| ->]; reflexivity.
Qed.

(* next_can_be_plain_scalar as a function of the next two characters *)
Definition cbf (fl : bool) (c nc : N) : bool :=
  if (c =? 58) && (is_blank_or_breakz nc || (fl && is_flow nc)) then false
  else if fl && is_flow c then false else true.
Lemma ncbps_st fl s0 c l m w :
  next_can_be_plain_scalar str_ops fl (st_with s0 c l m w) = Ok (cbf fl (nth 0 c 0) (nth 1 c 0), st_with s0 c l m w).
Proof.
  unfold next_can_be_plain_scalar, cbf, peek.
  mstep (peekn_st 1 s0 c l m w). mstep (peekn_st 0 s0 c l m w).
  destruct ((nth 0 c 0 =? 58) && (is_blank_or_breakz (nth 1 c 0) || (fl && is_flow (nth 1 c 0)))); [reflexivity|].
  destruct (fl && is_flow (nth 0 c 0)); reflexivity.
Qed.

(* next_is_document_indicator as a function of the next four characters *)
Definition doc_ind (c : list N) : bool :=
  is_blank_or_breakz (nth 3 c 0)
  && (((nth 0 c 0 =? 46) && (nth 1 c 0 =? 46) && (nth 2 c 0 =? 46)) || ((nth 0 c 0 =? 45) && (nth 1 c 0 =? 45) && (nth 2 c 0 =? 45))).
Lemma nidi_st s0 c l m w : (4 <= l)%nat ->
  next_is_document_indicator str_ops (st_with s0 c l m w) = Ok (doc_ind c, st_with s0 c l m w).
Proof. exact (next_is_document_indicator_str (st_with s0 c l m w)). Qed.

(* a line [S] that is not a document marker, in front of anything that does not go on with '-' or '.', does not look
   like one to the scanner *)
Lemma no_marker_doc_ind (S X : list N) :
  Forall (fun c => c <> 0) S -> marker_at_col0 [] S = false -> nth 0 X 0 <> 45 -> nth 0 X 0 <> 46 ->
  doc_ind (S ++ X) = false.
Proof.
  intros Hnz Hm H45 H46. unfold doc_ind.
  destruct (((nth 0 (S ++ X) 0 =? 46) && (nth 1 (S ++ X) 0 =? 46) && (nth 2 (S ++ X) 0 =? 46))
            || ((nth 0 (S ++ X) 0 =? 45) && (nth 1 (S ++ X) 0 =? 45) && (nth 2 (S ++ X) 0 =? 45))) eqn:E;
    [|apply andb_false_r].
  rewrite andb_true_r.
  assert (Hd : forall a b c, ((a =? 46) && (b =? 46) && (c =? 46)) || ((a =? 45) && (b =? 45) && (c =? 45)) = true ->
               (a = 45 \/ a = 46) /\ (b = 45 \/ b = 46) /\ (c = 45 \/ c = 46)).
  { intros a b c H. apply orb_prop in H. destruct H as [H|H]; apply andb_prop in H; destruct H as [H H3];
      apply andb_prop in H; destruct H as [H1 H2]; apply N.eqb_eq in H1, H2, H3; subst; auto. }
  destruct S as [|a [|b [|c [|d r]]]]; cbn [app nth] in *.
  - exfalso. destruct (Hd _ _ _ E) as [[H|H] _]; contradiction.
  - exfalso. destruct (Hd _ _ _ E) as [_ [[H|H] _]]; contradiction.
  - exfalso. destruct (Hd _ _ _ E) as [_ [_ [H|H]]]; contradiction.
  - exfalso. cbn [marker_at_col0] in Hm. rewrite andb_true_r in Hm. rewrite orb_comm in Hm. congruence.
  - cbn [marker_at_col0] in Hm. rewrite orb_comm in Hm. rewrite E in Hm. cbn [andb] in Hm.
    unfold is_blank_or_breakz, is_blank, is_breakz, is_break, is_z.
    apply orb_false_elim in Hm. destruct Hm as [Hm1 Hm2]. apply orb_false_elim in Hm1. destruct Hm1 as [Hm0 Hm1].
    unfold is_sp in Hm0. rewrite Hm0, Hm1, Hm2. cbn [orb].
    apply N.eqb_neq. exact (Forall_inv (Forall_inv_tail (Forall_inv_tail (Forall_inv_tail Hnz)))).
Qed.

(* the loop of scan_plain_scalar, cut into its phases (checked equal to the model by conversion) *)
Section PLoop.
Variable F : nat.
Variable indent : Z.
Variable start : marker.
Notation ops := str_ops.
Notation MS := (@M strin).
Notation GO := (list chr -> bool -> N -> list chr -> marker -> MS (list chr * marker)).

Definition pafter_blanks (go : GO) (acc : list chr) (endm : marker) (r : bool * N * list chr) : MS (list chr * marker) :=
  let '(lb, tb, ws) := r in
  s <- get ;;
  if (sc_flow_level s =? 0) && (Z.of_N (m_col (sc_mark s)) <? indent)%Z then ret (acc, endm)
  else go acc lb tb ws endm.

Definition ptail (go : GO) (r : list chr * bool * N * list chr * marker) : MS (list chr * marker) :=
  let '(acc, lb, tb, ws, endm) := r in
  c <- peek ops ;;
  if negb (is_blank c || is_break c) then ret (acc, endm) else
  look ops 2 ;;;
  r <- plain_blanks ops F F indent start lb tb ws ;;
  pafter_blanks go acc endm r.

(* how the pending fold is flushed in front of a word *)
Definition flush (w : bool) (acc : list chr) (lb : bool) (tb : N) (ws : list chr) : list chr * bool * N * list chr :=
  if w then
    (if negb lb then (nls tb acc, false, 0, ws)
     else if tb =? 0 then (32 :: acc, false, 0, ws)
     else (nls tb acc, false, 0, ws))
  else (ws ++ acc, lb, tb, []).

Definition pword (c : chr) (r : list chr * bool * N * list chr) : MS (list chr * bool * N * list chr * marker) :=
  let '(acc, lb, tb, ws) := r in
  modify (set_lws false) ;;;
  skip_non_blank ops ;;;
  look ops (bufmaxlen ops) ;;;
  acc <- plain_chunk ops F 0 (c :: acc) ;;
  m <- mark ;; ret (acc, lb, tb, ws, m).

Definition pbody (go : GO) (acc : list chr) (lb : bool) (tb : N) (ws : list chr) (endm : marker) : MS (list chr * marker) :=
  look ops 4 ;;;
  s <- get ;;
  di <- (if sc_lws s && (m_col (sc_mark s) =? 0) then next_is_document_indicator ops else ret false) ;;
  c <- peek ops ;;
  if di || (c =? 35) then ret (acc, endm) else
  nc <- peekn ops 1 ;;
  let fl := 0 <? sc_flow_level s in
  if (match acc with [] => true | _ => false end) && fl && (c =? 45) && is_flow nc then fail 76 (sc_mark s) else
  cb <- (if is_blank_or_breakz c then ret false else next_can_be_plain_scalar ops fl) ;;
  r <- (if cb then pword c (flush (sc_lws s) acc lb tb ws) else ret (acc, lb, tb, ws, endm)) ;;
  ptail go r.

Fixpoint ploop (f : nat) (acc : list chr) (lb : bool) (tb : N) (ws : list chr) (endm : marker) : MS (list chr * marker) :=
  match f with O => oof | S f => pbody (ploop f) acc lb tb ws endm end.
End PLoop.

Definition pfinish (start : marker) (r : list chr * marker) : @M strin token :=
  s <- get ;;
  (if sc_lws s then allow_simple_key else ret tt) ;;;
  match fst r with
  | [] => fail 78 start
  | _ => ret ({| sp_start := start; sp_end := snd r |}, TScalar Plain (rev (fst r)))
  end.

(* the phases ARE the model's scan_plain_scalar (conversion: this breaks when the model is edited) *)
Lemma scan_plain_scalar_phases F :
  scan_plain_scalar str_ops F
  = (unroll_non_block_indents ;;;
     s0 <- get ;;
     let indent := (sc_indent s0 + 1)%Z in
     let start := sc_mark s0 in
     if (0 <? sc_flow_level s0) && (Z.of_N (m_col start) <? indent)%Z then fail 75 start else
     r <- ploop F indent start F [] false 0 [] start ;; pfinish start r).
Proof. reflexivity. Qed.

(* character facts: the specification's ns-plain-char against the scanner's tests *)
Lemma is_flow_spec c : is_flow c = c_flow_indicator c.
Proof.
  unfold is_flow, c_flow_indicator. cbn [existsb].
  destruct (c =? 44), (c =? 91), (c =? 93), (c =? 123), (c =? 125); reflexivity.
Qed.
Lemma is_blank_sp c : is_blank c = is_sp c.
Proof. reflexivity. Qed.
Lemma ns_char_not_bbz c : ns_char c = true -> is_blank_or_breakz c = false.
Proof.
  unfold ns_char. intros H. repeat (apply andb_prop in H; destruct H as [H ?]).
  apply N.ltb_lt in H.
  unfold is_blank_or_breakz, is_blank, is_breakz, is_break, is_z.
  repeat match goal with |- context [c =? ?k] => destruct (N.eqb_spec c k); [lia|] end. reflexivity.
Qed.
Lemma ns_plain_safe_facts flow c : ns_plain_safe flow c = true ->
  is_blank_or_breakz c = false /\ (flow && is_flow c) = false.
Proof.
  unfold ns_plain_safe. intros H. apply andb_prop in H. destruct H as [H1 H2].
  split; [apply ns_char_not_bbz; exact H1|]. rewrite is_flow_spec. apply negb_true_iff in H2. exact H2.
Qed.

(* a non-blank character of a well-formed line: the scanner keeps it, whatever the real successor is when the
   character is not a colon *)
Lemma char_facts flow prev c next : plain_char_wf flow prev c next = true -> is_sp c = false ->
  is_blank_or_breakz c = false
  /\ (forall nc, (c = 58 -> nc = next) -> cbf flow c nc = true)
  /\ (c = 35 -> ns_char prev = true).
Proof.
  unfold plain_char_wf. intros H Hs. rewrite Hs in H.
  destruct (N.eqb_spec c 58) as [->|H58].
  - destruct (ns_plain_safe_facts flow next H) as [Hb Hf]. split; [reflexivity|]. split; [|discriminate].
    intros nc Hn. rewrite (Hn eq_refl). unfold cbf. rewrite Hb, Hf. change (58 =? 58) with true. cbn [andb orb].
    change (is_flow 58) with false. rewrite andb_false_r. reflexivity.
  - destruct (N.eqb_spec c 35) as [->|H35].
    + split; [reflexivity|]. split; [|intros _; exact H]. intros nc _. unfold cbf.
      change (35 =? 58) with false. cbn [andb]. change (is_flow 35) with false. rewrite andb_false_r. reflexivity.
    + destruct (ns_plain_safe_facts flow c H) as [Hb Hf]. split; [exact Hb|]. split; [|intros E; contradiction].
      intros nc _. unfold cbf. apply N.eqb_neq in H58. rewrite H58. cbn [andb]. rewrite Hf. reflexivity.
Qed.

Lemma plain_chars_no_nul flow : forall l prev, plain_line_chars_wf flow prev l = true -> Forall (fun c => c <> 0) l.
Proof.
  induction l as [|c l IH]; intros prev H; [constructor|].
  cbn [plain_line_chars_wf] in H. apply andb_prop in H. destruct H as [Hc H].
  constructor; [|exact (IH c H)]. intros ->. discriminate Hc.
Qed.

Lemma leading_spaces_cons c r : leading_spaces (c :: r) = if c =? 32 then S (leading_spaces r) else O.
Proof.
  destruct c as [|p]; [reflexivity|].
  do 6 (destruct p as [p|p|]; try reflexivity).
Qed.

(* what may follow a plain scalar *)
(* a character that ends a plain scalar wherever it stands after white space: a comment, in a flow collection a flow
   indicator, a colon followed by white space / the end of input / (flow) a flow indicator *)
Definition generic_terminator (flow : bool) (x x' : N) : bool :=
  (x =? 35) || (flow && c_flow_indicator x)
  || ((x =? 58) && (is_sp x' || is_breakz x' || (flow && c_flow_indicator x'))).

(* after the break that follows the last line: lines of spaces only (ended by LF, CR or CR LF), then the end of input
   or a line whose first non-space character [c] (in column [col]) ends the scalar: a generic terminator, in block
   context any text that is not indented deeper than the enclosing block, a document marker in column 0 *)
Fixpoint after_break_ok (flow : bool) (indent : Z) (col : nat) (r : list N) : bool :=
  match r with
  | [] => true
  | c :: r' =>
      if c =? 32 then after_break_ok flow indent (S col) r'
      else if c =? 10 then after_break_ok flow indent O r'
      else if c =? 13 then after_break_ok flow indent O (match r' with c2 :: r'' => if c2 =? 10 then r'' else r' | [] => r' end)
      else negb (is_blank_or_breakz c)
           && (generic_terminator flow c (hd 0 r')
               || (negb flow && (Z.of_nat col <=? indent)%Z)
               || (Nat.eqb col 0 && marker_at_col0 [] r))
  end.

(* what ends a plain scalar: blanks, then the end of input; a break (LF, CR, CR LF) followed by after_break_ok; a
   comment (after at least one blank); in a flow collection , [ ] { }; a colon + white space *)
Definition plain_follower_ok (flow : bool) (indent : Z) (rest : list N) : bool :=
  let r := drop_leading rest in
  match r with
  | [] => true
  | c :: r' =>
      if is_break c then after_break_ok flow indent O r
      else if c =? 35 then negb (Nat.eqb (length r) (length rest))
      else (flow && c_flow_indicator c)
           || ((c =? 58) && (is_sp (hd 0 r') || is_breakz (hd 0 r') || (flow && c_flow_indicator (hd 0 r'))))
  end.

Fixpoint take_leading (l : list N) : list N :=
  match l with c :: r => if is_sp c then c :: take_leading r else [] | [] => [] end.
Lemma split_leading l :
  l = take_leading l ++ drop_leading l /\ forallb is_sp (take_leading l) = true /\ is_sp (hd 1 (drop_leading l)) = false.
Proof.
  induction l as [|c l [IH1 [IH2 IH3]]]; [repeat split|].
  cbn [take_leading drop_leading]. destruct (is_sp c) eqn:E.
  - cbn [app forallb]. rewrite E. repeat split; [f_equal; exact IH1|exact IH2|exact IH3].
  - repeat split. exact E.
Qed.
Lemma hd_nth (l : list N) : hd 0 l = nth 0 l 0.
Proof. destruct l; reflexivity. Qed.

(* the text and the source of the lines after the first *)
Fixpoint rest_text (more : list (brk_layout * list N)) : list N :=
  match more with [] => [] | (b, l) :: r => break_text (brk_of b) ++ l ++ rest_text r end.
Definition src_more (more : list (brk_layout * list N)) : list N := flat_map (fun p => render_brk (fst p) ++ snd p) more.
Lemma plain_text_rest first more : plain_text first more = first ++ rest_text more.
Proof.
  unfold plain_text. revert first. induction more as [|[b l] more IH]; intros first; [cbn; rewrite app_nil_r; reflexivity|].
  cbn [map fold_lines rest_text fst snd]. rewrite IH. reflexivity.
Qed.
Definition more_wf (flow : bool) (n : nat) (more : list (brk_layout * list N)) : bool :=
  forallb (fun p => brk_wf n (fst p) && negb (bl_escaped (fst p)) && plain_line_wf flow (snd p)
                    && negb (marker_at_col0 (bl_indent (fst p)) (snd p))) more.

Lemma brk_wf_parts n b : brk_wf n b = true ->
  forallb is_sp (bl_pad b) = true /\ (bl_escaped b = true -> bl_pad b = []) /\
  forallb (empty_wf n) (bl_empties b) = true /\ indent_wf n (bl_indent b) = true.
Proof.
  unfold brk_wf. intros H. do 3 (apply andb_prop in H; destruct H as [H ?]).
  repeat split; try assumption. intros He. rewrite He in *. destruct (bl_pad b); [reflexivity|discriminate].
Qed.

(* fuel: one unit per blank and per break (a CR LF pair is one break) *)
Definition ecost (es : list (list N)) : nat := length (flat_map (fun e => e ++ [10]) es).
Definition brk_cost (b : brk_layout) : nat := (length (bl_pad b) + S (ecost (bl_empties b) + length (bl_indent b)))%nat.
Lemma ecost_le k es : (ecost es <= length (flat_map (fun e => e ++ nl_src k) es))%nat.
Proof.
  unfold ecost. induction es as [|e es IH]; [cbn; lia|]. cbn [flat_map]. rewrite !app_length. pose proof (nl_src_len k). cbn [length]. lia.
Qed.
Lemma brk_cost_le b : (brk_cost b <= length (render_brk b))%nat.
Proof.
  unfold brk_cost, render_brk. rewrite !app_length. pose proof (nl_src_len (bl_nl b)). pose proof (ecost_le (bl_nl b) (bl_empties b)). lia.
Qed.
Lemma render_brk_len b : (1 <= length (render_brk b))%nat.
Proof. unfold render_brk. rewrite !app_length. pose proof (nl_src_len (bl_nl b)). lia. Qed.

(* one plain scalar: fixed context *)
Section Plain.
Variable F : nat.
Variable s0 : sc strin.          (* the state after unroll_non_block_indents: every field but input, mark, lws *)
Variable start : marker.
Variable L : nat.
Hypothesis HL : (128 <= L)%nat.
Notation fl := (0 <? sc_flow_level s0).
Notation indent := (sc_indent s0 + 1)%Z.
Notation ops := str_ops.
Notation st := (st_with s0).

Definition col_ok (m : marker) : Prop := (indent <= Z.of_N (m_col m))%Z.
Lemma col_ok_adv k m : col_ok m -> col_ok (adv k m).
Proof. unfold col_ok. rewrite adv_col. lia. Qed.

(* plain_chunk *)
Lemma chunk_refresh fuel j acc c m :
  (127 <= j)%nat ->
  plain_chunk ops (S fuel) j acc (st c L m false) = plain_chunk ops fuel 0 acc (st c L m false).
Proof.
  intros Hj. cbn [plain_chunk].
  replace (Nat.leb (bufmaxlen ops - 1) j) with true by (symmetry; apply Nat.leb_le; exact Hj).
  mstep (look_noop (bufmaxlen ops) s0 c L m false HL). reflexivity.
Qed.

Lemma chunk_step1 fuel j acc c r m :
  (j < 127)%nat -> is_blank_or_breakz c = false -> cbf fl c (nth 0 r 0) = true ->
  plain_chunk ops (S fuel) j acc (st (c :: r) L m false) = plain_chunk ops fuel (S j) (c :: acc) (st r L (adv 1 m) false).
Proof.
  intros Hj Hb Hc. cbn [plain_chunk].
  replace (Nat.leb (bufmaxlen ops - 1) j) with false by (symmetry; apply Nat.leb_gt; exact Hj).
  unfold next_is, peek. rewrite bind_assoc. mstep (peekn_st 0 s0 (c :: r) L m false). cbn [nth].
  rewrite (bind_Ok (ret _) _ _ _ _ eq_refl). rewrite Hb.
  mstep (get_st s0 (c :: r) L m false). cbn [sc_flow_level st_with].
  mstep (ncbps_st fl s0 (c :: r) L m false). cbn [nth]. rewrite Hc. cbn [orb negb].
  mstep (peekn_st 0 s0 (c :: r) L m false). cbn [nth].
  mstep (skip_non_blank_st s0 (c :: r) L m false). reflexivity.
Qed.

Definition stops_chunk (after : list N) : Prop :=
  is_blank_or_breakz (nth 0 after 0) = true \/ cbf fl (nth 0 after 0) (nth 1 after 0) = false.

Lemma chunk_stop1 fuel j acc after m :
  (j < 127)%nat -> stops_chunk after ->
  plain_chunk ops (S fuel) j acc (st after L m false) = Ok (acc, st after L m false).
Proof.
  intros Hj Hs. cbn [plain_chunk].
  replace (Nat.leb (bufmaxlen ops - 1) j) with false by (symmetry; apply Nat.leb_gt; exact Hj).
  unfold next_is, peek. rewrite bind_assoc. mstep (peekn_st 0 s0 after L m false).
  rewrite (bind_Ok (ret _) _ _ _ _ eq_refl).
  mstep (get_st s0 after L m false). cbn [sc_flow_level st_with].
  destruct (is_blank_or_breakz (nth 0 after 0)) eqn:Eb.
  - rewrite (bind_Ok (ret false) _ _ _ _ eq_refl). reflexivity.
  - destruct Hs as [Hs|Hs]; [congruence|].
    mstep (ncbps_st fl s0 after L m false). rewrite Hs. reflexivity.
Qed.

(* the same, from any counter value *)
Lemma chunk_step fuel j acc c r m :
  is_blank_or_breakz c = false -> cbf fl c (nth 0 r 0) = true ->
  exists j', (j' <= 127)%nat /\
    (plain_chunk ops (S (S fuel)) j acc (st (c :: r) L m false)
     = plain_chunk ops (if Nat.leb 127 j then fuel else S fuel) j' (c :: acc) (st r L (adv 1 m) false)).
Proof.
  intros Hb Hc. destruct (Nat.leb 127 j) eqn:E.
  - apply Nat.leb_le in E. exists 1%nat. split; [lia|]. rewrite chunk_refresh by exact E.
    apply chunk_step1; [lia|exact Hb|exact Hc].
  - apply Nat.leb_gt in E. exists (S j). split; [lia|]. apply chunk_step1; [exact E|exact Hb|exact Hc].
Qed.
Lemma chunk_stop fuel j acc after m :
  stops_chunk after ->
  plain_chunk ops (S (S fuel)) j acc (st after L m false) = Ok (acc, st after L m false).
Proof.
  intros Hs. destruct (Nat.leb 127 j) eqn:E.
  - apply Nat.leb_le in E. rewrite chunk_refresh by exact E. apply chunk_stop1; [lia|exact Hs].
  - apply Nat.leb_gt in E. apply chunk_stop1; [exact E|exact Hs].
Qed.

(* plain_blanks *)
Notation pblanks := (plain_blanks ops F).

Lemma pb_blank_ws fb lb tb ws b r m :
  is_blank b = true ->
  pblanks (S fb) indent start lb tb ws (st (b :: r) L m false) = pblanks fb indent start lb tb (b :: ws) (st r L (adv 1 m) false).
Proof.
  intros Hb. cbn [plain_blanks]. unfold peek. mstep (peekn_st 0 s0 (b :: r) L m false). cbn [nth]. rewrite Hb.
  mstep (get_st s0 (b :: r) L m false). cbn [sc_lws st_with negb].
  mstep (skip_blank_st s0 (b :: r) L m false). cbn [tl].
  mstep (look_noop 2 s0 r L (adv 1 m) false ltac:(lia)). reflexivity.
Qed.

Lemma pb_blank_skip fb lb tb ws b r m :
  is_blank b = true -> (b = 9 -> col_ok m) ->
  pblanks (S fb) indent start lb tb ws (st (b :: r) L m true) = pblanks fb indent start lb tb ws (st r L (adv 1 m) true).
Proof.
  intros Hb Ht. cbn [plain_blanks]. unfold peek. mstep (peekn_st 0 s0 (b :: r) L m true). cbn [nth]. rewrite Hb.
  mstep (get_st s0 (b :: r) L m true). cbn [sc_lws sc_mark st_with negb].
  replace ((Z.of_N (m_col m) <? indent)%Z && (b =? 9)) with false.
  2:{ symmetry. destruct (N.eqb_spec b 9) as [E|E]; [|apply andb_false_r].
      rewrite andb_true_r. apply Z.ltb_ge. exact (Ht E). }
  mstep (skip_blank_st s0 (b :: r) L m true). cbn [tl].
  mstep (look_noop 2 s0 r L (adv 1 m) true ltac:(lia)). reflexivity.
Qed.

Lemma pb_nl_first k fb lb tb ws r m :
  cr_ok k r ->
  pblanks (S fb) indent start lb tb ws (st (nl_src k ++ r) L m false) = pblanks fb indent start true tb [] (st r L (nl_mark k m) true).
Proof.
  intros Hk. destruct (nl_head k r) as [H1 H2].
  cbn [plain_blanks]. unfold peek. mstep (peekn_st 0 s0 (nl_src k ++ r) L m false). rewrite H1, H2.
  mstep (get_st s0 (nl_src k ++ r) L m false). cbn [sc_lws st_with].
  mstep (skip_break_nl s0 k r L m false Hk).
  mstep (set_lws_st true s0 r L (nl_mark k m) true).
  mstep (look_noop 2 s0 r L (nl_mark k m) true ltac:(lia)). reflexivity.
Qed.

Lemma pb_nl_more k fb lb tb ws r m :
  cr_ok k r ->
  pblanks (S fb) indent start lb tb ws (st (nl_src k ++ r) L m true) = pblanks fb indent start lb (tb + 1) ws (st r L (nl_mark k m) true).
Proof.
  intros Hk. destruct (nl_head k r) as [H1 H2].
  cbn [plain_blanks]. unfold peek. mstep (peekn_st 0 s0 (nl_src k ++ r) L m true). rewrite H1, H2.
  mstep (get_st s0 (nl_src k ++ r) L m true). cbn [sc_lws st_with].
  mstep (skip_break_nl s0 k r L m true Hk).
  mstep (look_noop 2 s0 r L (nl_mark k m) true ltac:(lia)). reflexivity.
Qed.

Lemma pb_stop fb lb tb ws c m w :
  is_blank (nth 0 c 0) = false -> is_break (nth 0 c 0) = false ->
  pblanks (S fb) indent start lb tb ws (st c L m w) = Ok ((lb, tb, ws), st c L m w).
Proof.
  intros Hb Hk. cbn [plain_blanks]. unfold peek. mstep (peekn_st 0 s0 c L m w). rewrite Hb, Hk. reflexivity.
Qed.

(* a run of blanks after content (collected), and a run of blanks at the start of a line (skipped) *)
Lemma pb_blanks_ws : forall bs fb lb tb ws r m,
  forallb is_sp bs = true ->
  pblanks (length bs + fb) indent start lb tb ws (st (bs ++ r) L m false)
  = pblanks fb indent start lb tb (rev bs ++ ws) (st r L (adv (N.of_nat (length bs)) m) false).
Proof.
  induction bs as [|b bs IH]; intros fb lb tb ws r m H.
  - cbn [length app rev Nat.add]. change (N.of_nat 0) with 0. rewrite adv_0. reflexivity.
  - cbn [forallb] in H. apply andb_prop in H. destruct H as [Hb H].
    cbn [length app Nat.add]. rewrite pb_blank_ws by exact Hb. rewrite IH by exact H.
    rewrite adv_1_n. cbn [rev]. rewrite <- app_assoc. reflexivity.
Qed.

(* tabs of a line prefix are beyond the indentation *)
Fixpoint tabs_ok (col : N) (bs : list N) : Prop :=
  match bs with
  | [] => True
  | b :: r => (b = 9 -> (indent <= Z.of_N col)%Z) /\ tabs_ok (col + 1) r
  end.
Lemma pb_blanks_skip : forall bs fb lb tb ws r m,
  forallb is_sp bs = true -> tabs_ok (m_col m) bs ->
  pblanks (length bs + fb) indent start lb tb ws (st (bs ++ r) L m true)
  = pblanks fb indent start lb tb ws (st r L (adv (N.of_nat (length bs)) m) true).
Proof.
  induction bs as [|b bs IH]; intros fb lb tb ws r m H Ht.
  - cbn [length app Nat.add]. change (N.of_nat 0) with 0. rewrite adv_0. reflexivity.
  - cbn [forallb] in H. apply andb_prop in H. destruct H as [Hb H]. destruct Ht as [Ht1 Ht2].
    cbn [length app Nat.add]. rewrite pb_blank_skip; [|exact Hb|exact Ht1]. rewrite IH; [|exact H|exact Ht2].
    rewrite adv_1_n. reflexivity.
Qed.

Lemma tabs_ok_indent_wf : forall l col,
  forallb is_sp l = true -> (indent <= Z.of_N col + Z.of_nat (leading_spaces l))%Z -> tabs_ok col l.
Proof.
  induction l as [|c l IH]; intros col H Hi; [exact I|].
  cbn [forallb] in H. apply andb_prop in H. destruct H as [Hc H].
  rewrite leading_spaces_cons in Hi. cbn [tabs_ok].
  destruct (blank_cases c Hc) as [->| ->].
  - change (32 =? 32) with true in Hi. cbv iota in Hi. split; [discriminate|]. apply IH; [exact H|]. lia.
  - change (9 =? 32) with false in Hi. cbv iota in Hi. split; [intros _; lia|]. apply IH; [exact H|]. lia.
Qed.
Lemma tabs_ok_spaces : forall l col, forallb (N.eqb 32) l = true -> tabs_ok col l.
Proof.
  induction l as [|c l IH]; intros col H; [exact I|].
  cbn [forallb] in H. apply andb_prop in H. destruct H as [Hc H]. apply N.eqb_eq in Hc. subst c.
  split; [discriminate|]. apply IH. exact H.
Qed.
Lemma spaces_are_sp l : forallb (N.eqb 32) l = true -> forallb is_sp l = true.
Proof.
  induction l as [|c l IH]; intros H; [reflexivity|].
  cbn [forallb] in *. apply andb_prop in H. destruct H as [Hc H]. apply N.eqb_eq in Hc. subst c. rewrite IH by exact H. reflexivity.
Qed.

(* the lines of a break that hold blanks only, as the specification allows them (n: the indentation the context demands) *)
Variable n : nat.
Hypothesis Hn : (indent <= Z.of_nat n)%Z.

Lemma empty_wf_facts e : empty_wf n e = true -> forallb is_sp e = true /\ tabs_ok 0 e.
Proof.
  unfold empty_wf, indent_wf. intros H. apply orb_prop in H. destruct H as [H|H]; apply andb_prop in H; destruct H as [H1 H2].
  - split; [exact H1|]. apply tabs_ok_indent_wf; [exact H1|]. apply Nat.leb_le in H2. lia.
  - split; [apply spaces_are_sp; exact H1|apply tabs_ok_spaces; exact H1].
Qed.
Lemma indent_wf_facts e : indent_wf n e = true -> forallb is_sp e = true /\ tabs_ok 0 e /\ col_ok (adv (N.of_nat (length e)) (nlm start)).
Proof.
  unfold indent_wf. intros H. apply andb_prop in H. destruct H as [H1 H2]. apply Nat.leb_le in H2.
  split; [exact H1|]. split; [apply tabs_ok_indent_wf; [exact H1|lia]|].
  unfold col_ok. rewrite adv_col, nlm_col.
  assert (leading_spaces e <= length e)%nat.
  { clear. induction e as [|c e IH]; [cbn; lia|]. rewrite leading_spaces_cons. destruct (c =? 32); cbn [length]; lia. }
  lia.
Qed.

Lemma empties_blank es : forallb (empty_wf n) es = true -> Forall (fun e => forallb is_sp e = true) es.
Proof.
  intros H. apply Forall_forall. intros e Hin. exact (proj1 (empty_wf_facts e (proj1 (forallb_forall _ _) H e Hin))).
Qed.

Lemma pb_empties k : forall es fb lb tb ws r m,
  forallb (empty_wf n) es = true -> m_col m = 0 -> cr_ok k r ->
  exists m', m_col m' = 0 /\
    pblanks (ecost es + fb) indent start lb tb ws (st (flat_map (fun e => e ++ nl_src k) es ++ r) L m true)
    = pblanks fb indent start lb (tb + N.of_nat (length es)) ws (st r L m' true).
Proof.
  induction es as [|e es IH]; intros fb lb tb ws r m H Hm Hr.
  - exists m. split; [exact Hm|]. cbn [ecost flat_map length app Nat.add]. change (N.of_nat 0) with 0. rewrite N.add_0_r. reflexivity.
  - assert (Hbl := empties_blank _ H).
    cbn [forallb] in H. apply andb_prop in H. destruct H as [He H].
    destruct (empty_wf_facts e He) as [Hs Ht].
    destruct (IH fb lb (tb + 1) ws r (nl_mark k (adv (N.of_nat (length e)) m)) H (nl_mark_col _ _) Hr) as [m' [Hm' E]].
    exists m'. split; [exact Hm'|].
    unfold ecost in *. cbn [flat_map]. rewrite !app_length, <- !app_assoc. cbn [length app].
    match goal with |- context [(length e + 1 + ?c + fb)%nat] =>
      replace (length e + 1 + c + fb)%nat with (length e + S (c + fb))%nat by lia end.
    rewrite pb_blanks_skip; [|exact Hs|rewrite Hm; exact Ht].
    rewrite pb_nl_more.
    2:{ inversion Hbl; subst. apply cr_ok_flat; assumption. }
    rewrite E. f_equal. lia.
Qed.

Lemma pb_brk b fb x r m :
  brk_wf n b = true -> bl_escaped b = false -> is_blank x = false -> is_break x = false ->
  exists m', m_col m' = N.of_nat (length (bl_indent b)) /\ col_ok m' /\
    pblanks (brk_cost b + S fb) indent start false 0 [] (st (render_brk b ++ x :: r) L m false)
    = Ok ((true, N.of_nat (length (bl_empties b)), []), st (x :: r) L m' true).
Proof.
  intros Hw He Hx Hk. destruct (brk_wf_parts n b Hw) as [Hpad [_ [Hes Hind]]].
  destruct (indent_wf_facts _ Hind) as [Hi1 [Hi2 Hi3]].
  assert (Hcr : cr_ok (bl_nl b) (bl_indent b ++ x :: r)) by (apply cr_ok_blanks; assumption).
  unfold render_brk, brk_cost. rewrite He. cbn [app]. rewrite <- !app_assoc.
  destruct (pb_empties (bl_nl b) (bl_empties b) (length (bl_indent b) + S fb) true 0 [] (bl_indent b ++ x :: r)
              (nl_mark (bl_nl b) (adv (N.of_nat (length (bl_pad b))) m)) Hes (nl_mark_col _ _) Hcr) as [m' [Hm' E]].
  exists (adv (N.of_nat (length (bl_indent b))) m'). split; [rewrite adv_col, Hm'; lia|]. split.
  { unfold col_ok in *. rewrite adv_col, Hm'. rewrite adv_col, nlm_col in Hi3. exact Hi3. }
  replace (length (bl_pad b) + S (ecost (bl_empties b) + length (bl_indent b)) + S fb)%nat
    with (length (bl_pad b) + S (ecost (bl_empties b) + (length (bl_indent b) + S fb)))%nat by lia.
  rewrite pb_blanks_ws by exact Hpad. rewrite pb_nl_first by (apply cr_ok_flat; [apply empties_blank; exact Hes|exact Hcr]).
  rewrite E.
  rewrite pb_blanks_skip; [|exact Hi1|rewrite Hm'; exact Hi2].
  rewrite pb_stop by assumption. rewrite N.add_0_l. reflexivity.
Qed.

(* the phases of the loop body *)
Notation GO := (list chr -> bool -> N -> list chr -> marker -> @M strin (list chr * marker)).
Definition after_chunk (go : GO) (lb : bool) (tb : N) (ws : list chr) (a : list chr) : @M strin (list chr * marker) :=
  bind (m <- mark ;; ret (a, lb, tb, ws, m)) (ptail F indent start go).
Lemma after_chunk_st go lb tb ws a c l m w :
  after_chunk go lb tb ws a (st c l m w) = ptail F indent start go (a, lb, tb, ws, m) (st c l m w).
Proof. reflexivity. Qed.

Lemma ptail_stop go a lb tb ws endm c l m w :
  is_blank (nth 0 c 0) = false -> is_break (nth 0 c 0) = false ->
  ptail F indent start go (a, lb, tb, ws, endm) (st c l m w) = Ok ((a, endm), st c l m w).
Proof.
  intros Hb Hk. unfold ptail, peek. mstep (peekn_st 0 s0 c l m w). rewrite Hb, Hk. reflexivity.
Qed.
Lemma ptail_blanks go a lb tb ws endm c m w :
  is_blank (nth 0 c 0) || is_break (nth 0 c 0) = true ->
  ptail F indent start go (a, lb, tb, ws, endm) (st c L m w)
  = bind (pblanks F indent start lb tb ws) (pafter_blanks indent go a endm) (st c L m w).
Proof.
  intros Hb. unfold ptail, peek. mstep (peekn_st 0 s0 c L m w). rewrite Hb. cbn [negb].
  mstep (look_noop 2 s0 c L m w ltac:(lia)). reflexivity.
Qed.
Lemma pafter_blanks_go (go : GO) a endm lb tb ws c l m w :
  col_ok m ->
  pafter_blanks indent go a endm (lb, tb, ws) (st c l m w) = go a lb tb ws endm (st c l m w).
Proof.
  intros Hc. unfold pafter_blanks. mstep (get_st s0 c l m w). cbn [sc_flow_level sc_mark st_with].
  replace (Z.of_N (m_col m) <? indent)%Z with false by (symmetry; apply Z.ltb_ge; exact Hc).
  rewrite andb_false_r. reflexivity.
Qed.
Lemma pafter_blanks_end (go : GO) a endm lb tb ws c l m w :
  fl = false -> (Z.of_N (m_col m) < indent)%Z ->
  pafter_blanks indent go a endm (lb, tb, ws) (st c l m w) = Ok ((a, endm), st c l m w).
Proof.
  intros Hf Hc. unfold pafter_blanks. mstep (get_st s0 c l m w). cbn [sc_flow_level sc_mark st_with].
  replace (Z.of_N (m_col m) <? indent)%Z with true by (symmetry; apply Z.ltb_lt; exact Hc).
  replace (sc_flow_level s0 =? 0) with true; [reflexivity|].
  symmetry. apply N.eqb_eq. apply N.ltb_ge in Hf. lia.
Qed.

(* the head of an iteration at the first character of a word *)
Lemma pbody_word (go : GO) acc lb tb ws endm c r l m w acc' lb' tb' ws' :
  (w && (m_col m =? 0) = true -> doc_ind (c :: r) = false) ->
  c <> 35 ->
  (match acc with [] => true | _ => false end) && fl && (c =? 45) && is_flow (nth 0 r 0) = false ->
  is_blank_or_breakz c = false -> cbf fl c (nth 0 r 0) = true ->
  flush w acc lb tb ws = (acc', lb', tb', ws') ->
  pbody F indent start go acc lb tb ws endm (st (c :: r) l m w)
  = bind (plain_chunk ops F 0 (c :: acc')) (after_chunk go lb' tb' ws') (st r (Nat.max (Nat.max l 4) 128) (adv 1 m) false).
Proof.
  intros Hdi H35 H76 Hb Hcb Hfl. unfold pbody.
  mstep (look_st 4 s0 (c :: r) l m w).
  mstep (get_st s0 (c :: r) (Nat.max l 4) m w). cbn [sc_lws sc_mark sc_flow_level st_with].
  assert (Edi : (if w && (m_col m =? 0) then next_is_document_indicator ops else ret false) (st (c :: r) (Nat.max l 4) m w)
                = Ok (false, st (c :: r) (Nat.max l 4) m w)).
  { destruct (w && (m_col m =? 0)) eqn:E; [|reflexivity].
    rewrite nidi_st by lia. rewrite (Hdi eq_refl). reflexivity. }
  mstep Edi. unfold peek. mstep (peekn_st 0 s0 (c :: r) (Nat.max l 4) m w). cbn [nth].
  apply N.eqb_neq in H35. rewrite H35. cbn [orb]. cbv iota.
  mstep (peekn_st 1 s0 (c :: r) (Nat.max l 4) m w). cbn [nth]. rewrite H76. rewrite Hb.
  mstep (ncbps_st fl s0 (c :: r) (Nat.max l 4) m w). cbn [nth]. rewrite Hcb. rewrite Hfl.
  unfold pword. rewrite !bind_assoc.
  mstep (set_lws_st false s0 (c :: r) (Nat.max l 4) m w). rewrite !bind_assoc.
  mstep (skip_non_blank_st s0 (c :: r) (Nat.max l 4) m false). cbn [tl]. rewrite !bind_assoc.
  mstep (look_st (bufmaxlen ops) s0 r (Nat.max l 4) (adv 1 m) false). rewrite bind_assoc.
  reflexivity.
Qed.

Lemma max_L : Nat.max (Nat.max L 4) 128 = L.
Proof. lia. Qed.

(* the real successor of a character of the line is the specification's, where it matters *)
Lemma real_next prev c t' after :
  plain_char_wf fl prev c (hd 0 t') = true -> is_sp c = false ->
  is_blank_or_breakz c = false /\ cbf fl c (nth 0 (t' ++ after) 0) = true /\ (c = 35 -> ns_char prev = true).
Proof.
  intros H Hs. destruct (char_facts fl prev c (hd 0 t') H Hs) as [Hb [Hc H35]].
  split; [exact Hb|]. split; [|exact H35]. apply Hc. intros E. subst c.
  destruct t' as [|x t']; [|reflexivity]. exfalso.
  unfold plain_char_wf in H. cbn [hd] in H. change (is_sp 58) with false in H. change (58 =? 58) with true in H. cbv iota in H.
  unfold ns_plain_safe in H. change (ns_char 0) with false in H. discriminate H.
Qed.

(* one line: from inside the chunk loop / the blank loop to the end of the line *)
Section Line.
Variable after : list N.
Variable Q : list chr -> outcome (list chr * marker * sc strin) -> Prop.
Variable B : nat.
Hypothesis Hafter : forall f acc m, (B <= f)%nat -> acc <> [] -> col_ok m ->
  Q acc (after_chunk (ploop F indent start f) false 0 [] acc (st after L m false)).
Hypothesis Hstop : stops_chunk after.

Definition PW (t : list N) : Prop := forall prev fc j f acc m,
  plain_line_chars_wf fl prev t = true -> is_sp (last t 1) = false ->
  (2 * length t + 2 <= fc)%nat -> (2 * length t + 2 <= F)%nat -> (B + length t <= f)%nat ->
  acc <> [] -> col_ok m ->
  Q (rev t ++ acc) (bind (plain_chunk ops fc j acc) (after_chunk (ploop F indent start f) false 0 []) (st (t ++ after) L m false)).

Definition PB (b : N) (t : list N) : Prop := forall fb f acc ws endm m,
  is_sp b = true -> plain_line_chars_wf fl b t = true -> t <> [] -> is_sp (last t 1) = false ->
  (length (b :: t) < fb)%nat -> (2 * length t + 2 <= F)%nat -> (B + length (b :: t) <= f)%nat ->
  acc <> [] -> col_ok m ->
  Q (rev t ++ b :: ws ++ acc)
    (bind (pblanks fb indent start false 0 ws) (pafter_blanks indent (ploop F indent start f) acc endm) (st (b :: t ++ after) L m false)).

Lemma last_default_ne (t : list N) d d' : t <> [] -> last t d = last t d'.
Proof.
  induction t as [|c t IH]; [contradiction|]. intros _. destruct t as [|c' t]; [reflexivity|].
  change (last (c :: c' :: t) d) with (last (c' :: t) d). change (last (c :: c' :: t) d') with (last (c' :: t) d').
  apply IH. discriminate.
Qed.

Lemma PW_PB : forall t, PW t /\ (forall b, PB b t).
Proof.
  induction t as [|c t [IHW IHB]].
  - split; [|intros b fb f acc ws endm m _ _ Hne; contradiction].
    intros prev fc j f acc m _ _ Hfc _ Hf Hacc Hm.
    destruct fc as [|[|fc]]; [cbn in Hfc; lia|cbn in Hfc; lia|].
    cbn [app rev length]. rewrite (bind_Ok _ _ _ _ _ (chunk_stop fc j acc after m Hstop)).
    apply Hafter; [cbn in Hf; lia|exact Hacc|exact Hm].
  - assert (W : PW (c :: t)).
    { intros prev fc j f acc m Hwf Hlast Hfc HF Hf Hacc Hm.
      cbn [plain_line_chars_wf] in Hwf. apply andb_prop in Hwf. destruct Hwf as [Hc Hwf].
      destruct fc as [|[|fc]]; [cbn in Hfc; lia|cbn in Hfc; lia|].
      destruct (is_sp c) eqn:Es.
      - (* a blank: the word is over *)
        assert (Hne : t <> []).
        { intros ->. cbn [last] in Hlast. congruence. }
        assert (Hst : stops_chunk ((c :: t) ++ after)).
        { left. cbn [app nth]. unfold is_blank_or_breakz. rewrite is_blank_sp, Es. reflexivity. }
        rewrite (bind_Ok _ _ _ _ _ (chunk_stop fc j acc _ m Hst)).
        rewrite after_chunk_st. cbn [app].
        rewrite ptail_blanks by (cbn [nth]; rewrite is_blank_sp, Es; reflexivity).
        cbn [rev]. rewrite <- app_assoc. cbn [app].
        apply (IHB c F f acc [] m m); try assumption.
        + rewrite last_cons_ne in Hlast by exact Hne. exact Hlast.
        + cbn [length] in *. lia.
        + cbn [length] in *. lia.
      - (* a character of the word *)
        destruct (real_next prev c t after Hc Es) as [Hb [Hcb _]].
        destruct (chunk_step fc j acc c (t ++ after) m Hb Hcb) as [j' [Hj' E]].
        cbn [app]. rewrite (bind_congr _ _ _ _ _ E).
        cbn [rev]. rewrite <- app_assoc. cbn [app].
        replace (adv (N.of_nat (length (c :: t))) m) with (adv (N.of_nat (length t)) (adv 1 m)) by (rewrite adv_1_n; reflexivity).
        apply (IHW c); try assumption.
        + destruct t as [|c' t]; [reflexivity|]. rewrite last_cons_ne in Hlast by discriminate. exact Hlast.
        + cbn [length] in Hfc. destruct (Nat.leb 127 j); lia.
        + cbn [length] in HF. lia.
        + cbn [length] in Hf. lia.
        + discriminate.
        + apply col_ok_adv. exact Hm. }
    split; [exact W|].
    intros b fb f acc ws endm m Hb Hwf _ Hlast Hfb HF Hf Hacc Hm.
    cbn [plain_line_chars_wf] in Hwf. apply andb_prop in Hwf. destruct Hwf as [Hc Hwf].
    destruct fb as [|fb]; [cbn in Hfb; lia|].
    rewrite (bind_congr _ _ _ _ _ (pb_blank_ws fb false 0 ws b ((c :: t) ++ after) m Hb)).
    destruct (is_sp c) eqn:Es.
    + (* another blank *)
      assert (Hne : t <> []).
      { intros ->. cbn [last] in Hlast. congruence. }
      cbn [app rev]. rewrite <- app_assoc. cbn [app].
      apply (IHB c fb f acc (b :: ws) endm (adv 1 m)); try assumption.
      * rewrite last_cons_ne in Hlast by exact Hne. exact Hlast.
      * cbn [length] in *. lia.
      * cbn [length] in *. lia.
      * cbn [length] in *. lia.
      * apply col_ok_adv. exact Hm.
    + (* the next word starts *)
      destruct (real_next b c t after Hc Es) as [Hbz [Hcb H35]].
      destruct fb as [|fb]; [cbn in Hfb; lia|].
      destruct (bbz_parts c Hbz) as [Hbl [Hbk _]].
      cbn [app].
      rewrite (bind_Ok _ _ _ _ _ (pb_stop fb false 0 (b :: ws) (c :: t ++ after) (adv 1 m) false Hbl Hbk)).
      rewrite pafter_blanks_go by (apply col_ok_adv; exact Hm).
      destruct f as [|f]; [cbn in Hf; lia|]. cbn [ploop].
      rewrite (pbody_word (ploop F indent start f) acc false 0 (b :: ws) endm c (t ++ after) L (adv 1 m) false
                 ((b :: ws) ++ acc) false 0 []); try assumption; try reflexivity.
      * rewrite max_L. cbn [rev]. rewrite <- app_assoc. cbn [app].
        apply (IHW c F 0%nat f (c :: (b :: ws) ++ acc) (adv 1 (adv 1 m))); try assumption.
        -- destruct t as [|c' t]; [reflexivity|]. rewrite last_cons_ne in Hlast by discriminate. exact Hlast.
        -- cbn [length] in HF. lia.
        -- cbn [length] in HF. lia.
        -- cbn [length] in Hf. lia.
        -- discriminate.
        -- apply col_ok_adv. apply col_ok_adv. exact Hm.
      * discriminate.
      * intros E. specialize (H35 E). destruct (blank_cases b Hb) as [->| ->]; discriminate H35.
      * destruct acc; [contradiction|reflexivity].
Qed.
End Line.

(* a whole line, from the head of the iteration that starts it *)

Lemma line_run after (Q : list chr -> outcome (list chr * marker * sc strin) -> Prop) B
  (Hafter : forall f acc m, (B <= f)%nat -> acc <> [] -> col_ok m ->
            Q acc (after_chunk (ploop F indent start f) false 0 [] acc (st after L m false)))
  (Hstop : stops_chunk after) :
  forall c0 t acc lb tb ws endm l m w acc' f,
    plain_line_wf fl (c0 :: t) = true ->
    (w && (m_col m =? 0) = true -> doc_ind (c0 :: t ++ after) = false) ->
    (match acc with [] => true | _ => false end) && fl && (c0 =? 45) && is_flow (nth 0 (t ++ after) 0) = false ->
    flush w acc lb tb ws = (acc', false, 0, []) ->
    Nat.max (Nat.max l 4) 128 = L ->
    (2 * length t + 2 <= F)%nat -> (B + length t <= f)%nat -> col_ok m ->
    Q (rev t ++ c0 :: acc')
      (pbody F indent start (ploop F indent start f) acc lb tb ws endm (st (c0 :: t ++ after) l m w)).
Proof.
  intros c0 t acc lb tb ws endm l m w acc' f Hwf Hdi H76 Hfl Hl HF Hf Hm.
  unfold plain_line_wf in Hwf. apply andb_prop in Hwf. destruct Hwf as [Hwf Hch]. apply andb_prop in Hwf. destruct Hwf as [H0 Hlast].
  apply negb_true_iff in H0, Hlast.
  cbn [plain_line_chars_wf] in Hch. apply andb_prop in Hch. destruct Hch as [Hc Hch].
  destruct (real_next 0 c0 t after Hc H0) as [Hb [Hcb H35]].
  rewrite (pbody_word (ploop F indent start f) acc lb tb ws endm c0 (t ++ after) l m w acc' false 0 []); try assumption.
  - rewrite Hl.
    destruct (PW_PB after Q B Hafter Hstop t) as [W _].
    apply (W c0 F 0%nat f (c0 :: acc') (adv 1 m)); try assumption.
    + destruct t as [|c' t]; [reflexivity|]. rewrite last_cons_ne in Hlast by discriminate.
      rewrite (last_default_ne (c' :: t) 1 0) by discriminate. exact Hlast.
    + discriminate.
    + apply col_ok_adv. exact Hm.
  - intros E. specialize (H35 E). discriminate H35.
Qed.

(* a break and the line after it *)
Lemma flush_fold k acc :
  flush true acc true (N.of_nat k) [] = (rev (break_text (Folded k)) ++ acc, false, 0, []).
Proof.
  unfold flush. cbn [negb]. destruct k as [|k].
  - reflexivity.
  - replace (N.of_nat (S k) =? 0) with false by (symmetry; apply N.eqb_neq; lia).
    rewrite nls_repeat, Nat2N.id. cbn [break_text]. rewrite rev_repeat. reflexivity.
Qed.

(* a continuation line that is not a document marker in column 0 does not look like one to the scanner *)
Lemma no_marker_no_doc_ind line after :
  plain_line_chars_wf fl 0 line = true -> marker_at_col0 [] line = false -> stops_chunk after ->
  doc_ind (line ++ after) = false.
Proof.
  intros Hwf Hm Hs.
  (* the scanner goes on behind a '-' or a '.', so neither stands where it stops *)
  assert (Hx : forall x, x = 45 \/ x = 46 -> nth 0 after 0 <> x).
  { intros x Hx E. destruct Hs as [H|H]; rewrite E in H; destruct Hx as [->| ->]; try discriminate H;
      unfold cbf in H; destruct fl; discriminate H. }
  apply no_marker_doc_ind; [|exact Hm|apply Hx; left; reflexivity|apply Hx; right; reflexivity].
  exact (plain_chars_no_nul fl line 0 Hwf).
Qed.

Lemma render_brk_head b r : bl_escaped b = false -> forallb is_sp (bl_pad b) = true ->
  is_blank (nth 0 (render_brk b ++ r) 0) || is_break (nth 0 (render_brk b ++ r) 0) = true.
Proof.
  intros He Hp. unfold render_brk. rewrite He. destruct (bl_pad b) as [|x y]; [destruct (bl_nl b); reflexivity|].
  cbn [forallb] in Hp. apply andb_prop in Hp. destruct Hp as [Hx _]. cbn [app nth]. rewrite is_blank_sp, Hx. reflexivity.
Qed.

Lemma brk_step after (Q : list chr -> outcome (list chr * marker * sc strin) -> Prop) B
  (Hafter : forall f acc m, (B <= f)%nat -> acc <> [] -> col_ok m ->
            Q acc (after_chunk (ploop F indent start f) false 0 [] acc (st after L m false)))
  (Hstop : stops_chunk after) :
  forall b line f acc m,
    brk_wf n b = true -> bl_escaped b = false -> plain_line_wf fl line = true ->
    marker_at_col0 (bl_indent b) line = false ->
    (length (render_brk b) + 2 * length line + 2 <= F)%nat -> (B + length line + 1 <= f)%nat ->
    acc <> [] -> col_ok m ->
    Q (rev line ++ rev (break_text (brk_of b)) ++ acc)
      (after_chunk (ploop F indent start f) false 0 [] acc (st (render_brk b ++ line ++ after) L m false)).
Proof.
  intros b line f acc m Hb He Hline Hmk HF Hf Hacc Hm.
  destruct line as [|c0 t]; [discriminate Hline|].
  assert (Hline' := Hline).
  unfold plain_line_wf in Hline'. apply andb_prop in Hline'. destruct Hline' as [Hl1 Hch]. apply andb_prop in Hl1. destruct Hl1 as [H0 _].
  apply negb_true_iff in H0.
  assert (Hch' := Hch). cbn [plain_line_chars_wf] in Hch'. apply andb_prop in Hch'. destruct Hch' as [Hc _].
  destruct (real_next 0 c0 t after Hc H0) as [Hbz _].
  destruct (bbz_parts c0 Hbz) as [Hbl [Hbk _]].
  pose proof (proj1 (brk_wf_parts n b Hb)) as Hpad.
  rewrite after_chunk_st. rewrite ptail_blanks by (apply render_brk_head; assumption).
  cbn [app].
  pose proof (brk_cost_le b) as Hcost.
  destruct (pb_brk b (F - brk_cost b - 1) c0 (t ++ after) m Hb He Hbl Hbk) as [m' [Hcol [Hm' E]]].
  replace (brk_cost b + S (F - brk_cost b - 1))%nat with F in E by lia.
  rewrite (bind_Ok _ _ _ _ _ E).
  rewrite pafter_blanks_go by exact Hm'.
  destruct f as [|f]; [lia|]. cbn [ploop].
  unfold brk_of. rewrite He.
  cbn [rev]. rewrite <- app_assoc. cbn [app].
  apply (line_run after Q B Hafter Hstop c0 t acc true (N.of_nat (length (bl_empties b))) [] m L m' true); try assumption.
  - intros Hz. rewrite andb_true_l in Hz. apply N.eqb_eq in Hz. rewrite Hz in Hcol.
    assert (Hi : bl_indent b = []) by (destruct (bl_indent b); [reflexivity|cbn [length] in Hcol; lia]).
    rewrite Hi in Hmk. exact (no_marker_no_doc_ind (c0 :: t) after Hch Hmk Hstop).
  - destruct acc; [contradiction|reflexivity].
  - apply flush_fold.
  - apply max_L.
  - cbn [length] in HF. lia.
  - cbn [length] in Hf. lia.
Qed.

(* the end of the scalar *)
Lemma pbody_end (go : GO) acc lb tb ws endm c l m w :
  acc <> [] -> is_blank (nth 0 c 0) = false -> is_break (nth 0 c 0) = false ->
  (nth 0 c 0 = 35 \/ is_z (nth 0 c 0) = true \/ cbf fl (nth 0 c 0) (nth 1 c 0) = false
   \/ (w = true /\ m_col m = 0 /\ doc_ind c = true)) ->
  pbody F indent start go acc lb tb ws endm (st c l m w) = Ok ((acc, endm), st c (Nat.max l 4) m w).
Proof.
  intros Hacc Hb Hk Hx. unfold pbody.
  mstep (look_st 4 s0 c l m w).
  mstep (get_st s0 c (Nat.max l 4) m w). cbn [sc_lws sc_mark sc_flow_level st_with].
  assert (Edi : (if w && (m_col m =? 0) then next_is_document_indicator ops else ret false) (st c (Nat.max l 4) m w)
                = Ok ((w && (m_col m =? 0)) && doc_ind c, st c (Nat.max l 4) m w)).
  { destruct (w && (m_col m =? 0)) eqn:E; [|reflexivity]. rewrite nidi_st by lia. reflexivity. }
  mstep Edi. unfold peek. mstep (peekn_st 0 s0 c (Nat.max l 4) m w).
  destruct ((w && (m_col m =? 0)) && doc_ind c) eqn:Ed; [reflexivity|]. cbn [orb].
  destruct (N.eqb_spec (nth 0 c 0) 35) as [E35|E35]; [reflexivity|].
  mstep (peekn_st 1 s0 c (Nat.max l 4) m w).
  destruct acc as [|a0 acc0]; [contradiction|]. cbn [andb]. cbv iota.
  assert (Ecb : (if is_blank_or_breakz (nth 0 c 0) then ret false else next_can_be_plain_scalar ops fl) (st c (Nat.max l 4) m w)
                = Ok (false, st c (Nat.max l 4) m w)).
  { destruct (is_blank_or_breakz (nth 0 c 0)) eqn:Ez; [reflexivity|].
    rewrite ncbps_st. destruct Hx as [Hx|[Hx|[Hx|[Hw [Hc Hd]]]]].
    - contradiction.
    - unfold is_blank_or_breakz, is_breakz in Ez. rewrite Hx in Ez. rewrite !orb_true_r in Ez. discriminate Ez.
    - rewrite Hx. reflexivity.
    - rewrite Hw, Hc, Hd in Ed. discriminate Ed. }
  mstep Ecb. rewrite (bind_Ok (ret _) _ _ _ _ eq_refl).
  apply ptail_stop; assumption.
Qed.

Definition ends_here (c : list N) (m : marker) (w : bool) : Prop :=
  is_blank (nth 0 c 0) = false /\ is_break (nth 0 c 0) = false /\
  ((nth 0 c 0 = 35 \/ is_z (nth 0 c 0) = true \/ cbf fl (nth 0 c 0) (nth 1 c 0) = false
    \/ (w = true /\ m_col m = 0 /\ doc_ind c = true))
   \/ (fl = false /\ (Z.of_N (m_col m) < indent)%Z)).

Definition Qf (final : list chr) (o : outcome (list chr * marker * sc strin)) : Prop :=
  exists endm s', o = Ok ((final, endm), s').

Lemma pafter_ends f acc endm lb tb ws c l m w :
  ends_here c m w -> acc <> [] ->
  Qf acc (pafter_blanks indent (ploop F indent start (S f)) acc endm (lb, tb, ws) (st c l m w)).
Proof.
  intros [Hb [Hk Hx]] Hacc. unfold pafter_blanks. mstep (get_st s0 c l m w). cbn [sc_flow_level sc_mark st_with].
  destruct ((sc_flow_level s0 =? 0) && (Z.of_N (m_col m) <? indent)%Z) eqn:E; [eexists; eexists; reflexivity|].
  destruct Hx as [Hx|[Hf Hc]].
  - cbn [ploop]. rewrite pbody_end by assumption. eexists; eexists; reflexivity.
  - exfalso. apply Z.ltb_lt in Hc. rewrite Hc in E. rewrite andb_true_r in E.
    apply N.ltb_ge in Hf. apply N.eqb_neq in E. lia.
Qed.

Lemma marker_doc_ind r : marker_at_col0 [] r = true -> doc_ind r = true.
Proof.
  unfold marker_at_col0, doc_ind. destruct r as [|a [|b [|c r]]]; try discriminate.
  intros H. apply andb_prop in H. destruct H as [H1 H2]. cbn [nth]. rewrite orb_comm, H1, andb_true_r.
  destruct r as [|d r]; [reflexivity|]. cbn [nth].
  unfold is_blank_or_breakz, is_breakz, is_break, is_blank. unfold is_sp in H2.
  destruct ((d =? 32) || (d =? 9)); [reflexivity|]. cbn [orb] in *. apply orb_prop in H2. destruct H2 as [H2|H2]; rewrite H2; [reflexivity|].
  rewrite orb_true_r. reflexivity.
Qed.

Lemma generic_terminator_cases x r' :
  generic_terminator fl x (hd 0 r') = true -> x = 35 \/ cbf fl x (nth 0 r' 0) = false.
Proof.
  intros H.
  unfold generic_terminator in H. apply orb_prop in H. destruct H as [H|H]; [apply orb_prop in H; destruct H as [H|H]|].
  - left. apply N.eqb_eq. exact H.
  - right. unfold cbf. rewrite !is_flow_spec, H. destruct ((x =? 58) && _); reflexivity.
  - right. apply andb_prop in H. destruct H as [H1 H2]. unfold cbf. rewrite H1. cbn [andb].
    rewrite <- hd_nth. unfold is_blank_or_breakz. rewrite is_blank_sp, is_flow_spec. rewrite H2. reflexivity.
Qed.
Lemma generic_terminator_ends x r' m w :
  generic_terminator fl x (hd 0 r') = true -> is_blank_or_breakz x = false -> ends_here (x :: r') m w.
Proof.
  intros H Hz. unfold ends_here. cbn [nth]. destruct (bbz_parts x Hz) as [Hb [Hk _]].
  split; [exact Hb|]. split; [exact Hk|]. left.
  destruct (generic_terminator_cases x r' H) as [E|E]; [left; exact E|right; right; left; exact E].
Qed.

(* a break at the head of [c :: r']: its kind, and what follows it *)
Lemma break_split c r' : is_break c = true ->
  exists k r2, c :: r' = nl_src k ++ r2 /\ cr_ok k r2 /\ (length r2 <= length r')%nat
               /\ r2 = (if c =? 10 then r' else match r' with c2 :: r'' => if c2 =? 10 then r'' else r' | [] => r' end).
Proof.
  intros Hc. unfold is_break in Hc. apply orb_prop in Hc. destruct Hc as [Hc|Hc]; apply N.eqb_eq in Hc; subst c.
  - exists NlLF, r'. split; [reflexivity|]. split; [intros E; discriminate E|]. split; [lia|reflexivity].
  - change (13 =? 10) with false. cbv iota. destruct r' as [|c2 r''].
    + exists NlCR, []. split; [reflexivity|]. split; [intros _; reflexivity|]. split; [lia|reflexivity].
    + destruct (N.eqb_spec c2 10) as [->|Hne].
      * exists NlCRLF, r''. split; [reflexivity|]. split; [intros E; discriminate E|]. split; [cbn [length]; lia|reflexivity].
      * exists NlCR, (c2 :: r''). split; [reflexivity|]. split; [intros _; cbn [nth]; apply N.eqb_neq; exact Hne|]. split; [lia|reflexivity].
Qed.

(* the lines after the break that follows the last line *)
Lemma after_break_run : forall len r col fb f lb tb ws m acc endm,
  (length r <= len)%nat ->
  after_break_ok fl (sc_indent s0) col r = true -> m_col m = N.of_nat col -> (length r < fb)%nat -> acc <> [] ->
  Qf acc (bind (pblanks fb indent start lb tb ws) (pafter_blanks indent (ploop F indent start (S f)) acc endm) (st r L m true)).
Proof.
  assert (Hnil : forall fb f lb tb ws m acc endm, (0 < fb)%nat -> acc <> [] ->
            Qf acc (bind (pblanks fb indent start lb tb ws) (pafter_blanks indent (ploop F indent start (S f)) acc endm) (st [] L m true))).
  { intros fb f lb tb ws m acc endm Hfb Hacc. destruct fb as [|fb]; [lia|].
    rewrite (bind_Ok _ _ _ _ _ (pb_stop fb lb tb ws [] m true eq_refl eq_refl)).
    apply pafter_ends; [|exact Hacc]. split; [reflexivity|]. split; [reflexivity|]. left. right. left. reflexivity. }
  induction len as [|len IH]; intros r col fb f lb tb ws m acc endm Hlen H Hc Hfb Hacc.
  { destruct r as [|c r]; [apply Hnil; [lia|exact Hacc]|cbn [length] in Hlen; lia]. }
  destruct r as [|c r]; [apply Hnil; [lia|exact Hacc]|].
  destruct fb as [|fb]; [cbn in Hfb; lia|]. cbn [after_break_ok] in H.
  destruct (N.eqb_spec c 32) as [->|H32].
  - rewrite (bind_congr _ _ _ _ _ (pb_blank_skip fb lb tb ws 32 r m eq_refl ltac:(discriminate))).
    apply (IH r (S col)); [cbn [length] in Hlen; lia|exact H|rewrite adv_col, Hc; lia|cbn [length] in Hfb; lia|exact Hacc].
  - destruct (is_break c) eqn:Ek.
    + (* a break: LF, CR, CR LF *)
      destruct (break_split c r Ek) as [k [r2 [Esrc [Hcr [Hl2 Er2]]]]].
      assert (H2 : after_break_ok fl (sc_indent s0) O r2 = true).
      { rewrite Er2. unfold is_break in Ek. destruct (N.eqb_spec c 10) as [->|H10]; [exact H|].
        cbn [orb] in Ek. rewrite Ek in H. exact H. }
      rewrite Esrc. rewrite (bind_congr _ _ _ _ _ (pb_nl_more k fb lb tb ws r2 m Hcr)).
      apply (IH r2 O); [cbn [length] in Hlen; lia|exact H2|apply nl_mark_col|cbn [length] in Hfb; lia|exact Hacc].
    + unfold is_break in Ek. apply orb_false_elim in Ek. destruct Ek as [E10 E13]. rewrite E10, E13 in H.
      apply andb_prop in H. destruct H as [Hz H]. apply negb_true_iff in Hz.
      destruct (bbz_parts c Hz) as [Hbl [Hbk _]].
      rewrite (bind_Ok _ _ _ _ _ (pb_stop fb lb tb ws (c :: r) m true Hbl Hbk)).
      apply pafter_ends; [|exact Hacc].
      apply orb_prop in H. destruct H as [H|H]; [apply orb_prop in H; destruct H as [H|H]|].
      * apply generic_terminator_ends; assumption.
      * apply andb_prop in H. destruct H as [Hf Hcol]. apply negb_true_iff in Hf. apply Z.leb_le in Hcol.
        split; [tauto|]. split; [tauto|]. right. split; [exact Hf|]. rewrite Hc. lia.
      * apply andb_prop in H. destruct H as [H0 Hmk]. apply Nat.eqb_eq in H0. subst col.
        split; [tauto|]. split; [tauto|]. left. right. right. right.
        split; [reflexivity|]. split; [exact Hc|]. apply marker_doc_ind. exact Hmk.
Qed.

(* blanks, then something that ends the scalar *)
Lemma blanks_then_end bs r f acc m :
  bs <> [] -> forallb is_sp bs = true -> ends_here r (adv (N.of_nat (length bs)) m) false ->
  (length bs < F)%nat -> acc <> [] ->
  Qf acc (after_chunk (ploop F indent start (S f)) false 0 [] acc (st (bs ++ r) L m false)).
Proof.
  intros Hne Hbs He HF Hacc. rewrite after_chunk_st.
  rewrite ptail_blanks.
  2:{ destruct bs as [|b bs]; [contradiction|]. cbn [forallb] in Hbs. apply andb_prop in Hbs. destruct Hbs as [Hb _].
      cbn [app nth]. rewrite is_blank_sp, Hb. reflexivity. }
  replace F with (length bs + S (F - length bs - 1))%nat at 2 by lia.
  rewrite (bind_congr _ _ _ _ _ (pb_blanks_ws bs _ false 0 [] r m Hbs)).
  destruct He as [Hb [Hk Hx]].
  rewrite (bind_Ok _ _ _ _ _ (pb_stop _ false 0 _ r _ false Hb Hk)).
  apply pafter_ends; [|exact Hacc]. split; [exact Hb|]. split; [exact Hk|exact Hx].
Qed.

Lemma follower_run rest :
  plain_follower_ok fl (sc_indent s0) rest = true ->
  stops_chunk rest /\
  forall f acc m, (length rest + 2 <= F)%nat -> acc <> [] -> col_ok m ->
    Qf acc (after_chunk (ploop F indent start (S f)) false 0 [] acc (st rest L m false)).
Proof.
  unfold plain_follower_ok. destruct (split_leading rest) as [Hsplit [Hbs Hhd]].
  set (bs := take_leading rest) in *. set (r := drop_leading rest) in *.
  intros H.
  assert (Hstop_b : bs <> [] -> stops_chunk rest).
  { intros Hne. left. rewrite Hsplit. destruct bs as [|b bs']; [contradiction|].
    cbn [forallb] in Hbs. apply andb_prop in Hbs. destruct Hbs as [Hb _].
    cbn [app nth]. unfold is_blank_or_breakz. rewrite is_blank_sp, Hb. reflexivity. }
  assert (Hlen : length rest = (length bs + length r)%nat) by (rewrite Hsplit at 1; apply app_length).
  destruct r as [|c r'] eqn:Er.
  - (* end of input *)
    split.
    + destruct bs as [|b bs'] eqn:Eb; [|apply Hstop_b; discriminate]. left. rewrite Hsplit. reflexivity.
    + intros f acc m HF Hacc Hm. rewrite Hsplit.
      destruct bs as [|b bs'] eqn:Eb.
      * cbn [app]. rewrite after_chunk_st. rewrite ptail_stop by reflexivity. eexists; eexists; reflexivity.
      * rewrite <- Eb in *. apply blanks_then_end; try assumption; try lia; [rewrite Eb; discriminate|].
        split; [reflexivity|]. split; [reflexivity|]. left. right. left. reflexivity.
  - cbn [hd] in Hhd.
    destruct (is_break c) eqn:Ek.
    + (* a break *)
      destruct (break_split c r' Ek) as [k [r2 [Esrc [Hcr [Hl2 Er2]]]]].
      assert (H2 : after_break_ok fl (sc_indent s0) O r2 = true).
      { rewrite Er2. cbn [after_break_ok] in H. assert (E32 : (c =? 32) = false).
        { unfold is_sp in Hhd. apply orb_false_elim in Hhd. tauto. }
        rewrite E32 in H. unfold is_break in Ek. destruct (N.eqb_spec c 10) as [->|H10]; [exact H|].
        cbn [orb] in Ek. rewrite Ek in H. exact H. }
      split.
      * destruct bs as [|b bs'] eqn:Eb; [|apply Hstop_b; discriminate]. left. rewrite Hsplit. cbn [app nth].
        unfold is_blank_or_breakz, is_breakz. rewrite Ek. rewrite orb_true_r. reflexivity.
      * intros f acc m HF Hacc Hm. rewrite Hsplit. rewrite after_chunk_st.
        rewrite ptail_blanks.
        2:{ destruct bs as [|b bs']; [cbn [app nth]; rewrite Ek; apply orb_true_r|].
            cbn [forallb] in Hbs. apply andb_prop in Hbs. destruct Hbs as [Hb _]. cbn [app nth]. rewrite is_blank_sp, Hb. reflexivity. }
        replace F with (length bs + S (F - length bs - 1))%nat at 2 by (cbn [length] in Hlen; lia).
        rewrite (bind_congr _ _ _ _ _ (pb_blanks_ws bs _ false 0 [] (c :: r') m Hbs)).
        rewrite Esrc.
        rewrite (bind_congr _ _ _ _ _ (pb_nl_first k _ false 0 _ r2 _ Hcr)).
        apply (after_break_run (length r2) r2 O); [lia|exact H2|apply nl_mark_col|cbn [length] in Hlen; lia|exact Hacc].
    + assert (Hbl : is_blank c = false) by (rewrite is_blank_sp; exact Hhd).
      destruct (N.eqb_spec c 35) as [->|H35].
      * (* a comment *)
        apply negb_true_iff in H. apply Nat.eqb_neq in H.
        assert (Hne : bs <> []) by (intros E; rewrite E in Hlen; cbn [length] in Hlen, H; lia).
        split; [apply Hstop_b; exact Hne|].
        intros f acc m HF Hacc Hm. rewrite Hsplit.
        apply blanks_then_end; try assumption; try lia.
        split; [reflexivity|]. split; [reflexivity|]. left. left. reflexivity.
      * (* a flow indicator, a colon *)
        assert (Hg : generic_terminator fl c (hd 0 r') = true).
        { unfold generic_terminator. apply orb_prop in H. destruct H as [H|H]; rewrite H; [rewrite orb_true_r|]; try reflexivity.
          apply orb_true_r. }
        assert (Hz : is_blank_or_breakz c = false).
        { unfold is_blank_or_breakz, is_breakz. rewrite Hbl, Ek. cbn [orb].
          unfold generic_terminator in Hg. unfold is_z. destruct (N.eqb_spec c 0) as [->|_]; [|reflexivity].
          destruct fl; discriminate Hg. }
        assert (He : forall m w, ends_here (c :: r') m w) by (intros; apply generic_terminator_ends; assumption).
        split.
        { destruct bs as [|b bs'] eqn:Eb; [|apply Hstop_b; discriminate]. rewrite Hsplit. cbn [app].
          destruct (generic_terminator_cases c r' Hg) as [E|E]; [contradiction|]. right. exact E. }
        intros f acc m HF Hacc Hm. rewrite Hsplit.
        destruct bs as [|b bs'] eqn:Eb.
        -- cbn [app]. rewrite after_chunk_st. rewrite ptail_stop by (cbn [nth]; assumption). eexists; eexists; reflexivity.
        -- rewrite <- Eb in *. apply blanks_then_end; try assumption; try lia; [rewrite Eb; discriminate|apply He].
Qed.

(* all the lines after the first *)
Section Lines.
Variable rest : list N.
Hypothesis Hfollow : plain_follower_ok fl (sc_indent s0) rest = true.

Lemma stops_src_more more : more_wf fl n more = true -> stops_chunk (src_more more ++ rest).
Proof.
  destruct more as [|[b l] more]; intros H.
  - exact (proj1 (follower_run rest Hfollow)).
  - left. cbn [more_wf forallb fst snd] in H. repeat (apply andb_prop in H; destruct H as [H ?]).
    match goal with H : negb (bl_escaped b) = true |- _ => apply negb_true_iff in H; rename H into He end.
    cbn [src_more flat_map fst snd]. rewrite <- !app_assoc.
    pose proof (render_brk_head b (l ++ flat_map (fun p => render_brk (fst p) ++ snd p) more ++ rest) He H) as Hh.
    unfold is_blank_or_breakz, is_breakz. apply orb_prop in Hh. destruct Hh as [Hh|Hh]; rewrite Hh; [reflexivity|].
    rewrite orb_true_r. reflexivity.
Qed.

Lemma lines_run : forall more f acc m,
  more_wf fl n more = true ->
  (length (src_more more ++ rest) + 2 <= f)%nat -> (2 * length (src_more more ++ rest) + 6 <= F)%nat ->
  acc <> [] -> col_ok m ->
  Qf (rev (rest_text more) ++ acc)
     (after_chunk (ploop F indent start f) false 0 [] acc (st (src_more more ++ rest) L m false)).
Proof.
  induction more as [|[b line] more IH]; intros f acc m Hwf Hf HF Hacc Hm.
  - destruct f as [|f]; [lia|]. cbn [src_more flat_map app rest_text rev] in *.
    apply (proj2 (follower_run rest Hfollow)); [lia|exact Hacc|exact Hm].
  - assert (Hwf0 := Hwf).
    cbn [more_wf forallb fst snd] in Hwf. apply andb_prop in Hwf. destruct Hwf as [Hhd Hwf'].
    do 3 (apply andb_prop in Hhd; destruct Hhd as [Hhd ?]).
    match goal with H : negb (bl_escaped b) = true |- _ => apply negb_true_iff in H; rename H into He end.
    match goal with H : negb (marker_at_col0 _ _) = true |- _ => apply negb_true_iff in H; rename H into Hmk end.
    cbn [src_more flat_map fst snd] in *. fold (src_more more) in *.
    rewrite <- !app_assoc in *. rewrite !app_length in Hf, HF.
    cbn [rest_text]. rewrite !rev_app_distr, <- !app_assoc.
    apply (brk_step (src_more more ++ rest) (fun a o => Qf (rev (rest_text more) ++ a) o) (length (src_more more ++ rest) + 2)%nat);
      try assumption.
    + intros f' acc' m' HB' Hacc' Hm'. apply IH; try assumption. rewrite ?app_length in *. lia.
    + apply stops_src_more. exact Hwf'.
    + rewrite ?app_length in *. lia.
    + pose proof (render_brk_len b). rewrite ?app_length in *. lia.
Qed.
End Lines.
End Plain.

(* the theorem *)
(* the indentation scan_plain_scalar works with: that of the innermost block collection that is not an
   indentless sequence / a one-column indent (unroll_non_block_indents) *)
Definition eff_indent (s : sc strin) : Z := fst (unroll_nb (sc_indents s) (sc_indent s)).

Definition C04_plain_full : Prop :=
  forall (F n : nat) (first : list N) (more : list (brk_layout * list N)) (rest : list N) (s : sc strin),
    plain_layout_wf (0 <? sc_flow_level s) n first more = true ->
    si_chars (sc_in s) = plain_render first more ++ rest ->
    plain_follower_ok (0 <? sc_flow_level s) (eff_indent s) rest = true ->
    (eff_indent s < Z.of_nat n)%Z ->                              (* continuation lines are indented deeper than the block *)
    (eff_indent s < Z.of_N (m_col (sc_mark s)))%Z ->              (* ... and so is the first line *)
    (sc_lws s = true -> m_col (sc_mark s) = 0 -> marker_at_col0 [] first = false) ->   (* c-forbidden *)
    (2 * length (si_chars (sc_in s)) + 10 <= F)%nat ->
    exists sp s',
      scan_plain_scalar str_ops F s = Ok ((sp, TScalar Plain (plain_text first more)), s')
      /\ sp_start sp = sc_mark s.

Lemma scan_plain_scalar_text : C04_plain_full.
Proof.
  intros F n first more rest s Hwf Hsrc Hfollow Hn Hcol Hmk HF.
  set (s1 := let '(ind, l) := unroll_nb (sc_indents s) (sc_indent s) in set_indent ind l s).
  assert (E1 : unroll_non_block_indents s = Ok (tt, s1)) by reflexivity.
  assert (Hs1 : sc_indent s1 = eff_indent s /\ sc_flow_level s1 = sc_flow_level s /\ sc_mark s1 = sc_mark s
                /\ sc_in s1 = sc_in s /\ sc_lws s1 = sc_lws s).
  { unfold s1, eff_indent. destruct (unroll_nb (sc_indents s) (sc_indent s)) as [ind l]. repeat split. }
  destruct Hs1 as [Hi1 [Hf1 [Hm1 [Hin1 Hw1]]]].
  assert (Hrun : scan_plain_scalar str_ops F s
                 = (r <- ploop F (sc_indent s1 + 1) (sc_mark s) F [] false 0 [] (sc_mark s) ;; pfinish (sc_mark s) r)
                     (st_with s1 (plain_render first more ++ rest) (si_look (sc_in s)) (sc_mark s) (sc_lws s))).
  { rewrite scan_plain_scalar_phases.
    mstep E1. mstep (eq_refl : get s1 = Ok (s1, s1)). cbv zeta.
    rewrite Hf1, Hm1, Hi1.
    replace (Z.of_N (m_col (sc_mark s)) <? eff_indent s + 1)%Z with false by (symmetry; apply Z.ltb_ge; lia).
    rewrite andb_false_r.
    rewrite <- Hsrc, <- Hin1, <- Hw1. f_equal. rewrite <- Hm1. apply st_with_id. }
  rewrite Hrun. clear Hrun. clearbody s1. clear E1.
  set (l := si_look (sc_in s)). set (m := sc_mark s). set (w := sc_lws s).
  set (L := Nat.max (Nat.max l 4) 128).
  assert (HL : (128 <= L)%nat) by (unfold L; lia).
  unfold plain_layout_wf in Hwf. apply andb_prop in Hwf. destruct Hwf as [Hwf Hmore].
  apply andb_prop in Hwf. destruct Hwf as [Hfirst Hline].
  rewrite <- Hf1 in Hfirst, Hline, Hmore, Hfollow. rewrite <- Hi1 in Hfollow, Hn, Hcol.
  fold (more_wf (0 <? sc_flow_level s1) n more) in Hmore.
  destruct first as [|c0 t]; [discriminate Hline|].
  rewrite Hsrc in HF.
  unfold plain_render in *. fold (src_more more) in *. rewrite <- app_assoc in *. cbn [app] in *. cbn [length] in HF. rewrite app_length in HF.
  destruct F as [|f]; [lia|].
  assert (Hn' : (sc_indent s1 + 1 <= Z.of_nat n)%Z) by lia.
  assert (Hstop : stops_chunk s1 (src_more more ++ rest)).
  { apply (stops_src_more (S f) s1 m L HL n rest Hfollow). exact Hmore. }
  assert (Hch : plain_line_chars_wf (0 <? sc_flow_level s1) 0 (c0 :: t) = true).
  { unfold plain_line_wf in Hline. apply andb_prop in Hline. tauto. }
  cbn [ploop].
  pose proof (line_run (S f) s1 m L HL n (src_more more ++ rest)
                (fun a o => Qf (rev (rest_text more) ++ a) o) (length (src_more more ++ rest) + 2)%nat) as LR.
  destruct (LR (fun f' acc' m' HB' Hacc' Hm' =>
                  lines_run (S f) s1 m L HL n Hn' rest Hfollow more f' acc' m' Hmore HB' ltac:(lia) Hacc' Hm')
               Hstop c0 t [] false 0 [] m l m w [] f Hline) as [endm [s' E]].
  - intros Hz. apply andb_prop in Hz. destruct Hz as [Hz1 Hz2]. apply N.eqb_eq in Hz2.
    apply (no_marker_no_doc_ind s1 (c0 :: t) (src_more more ++ rest) Hch); [|exact Hstop].
    apply Hmk; assumption.
  - cbn [andb]. destruct (N.eqb_spec c0 45) as [->|H45]; [|rewrite andb_false_r; reflexivity].
    rewrite andb_true_r. unfold plain_first_wf in Hfirst. change (c_indicator 45) with true in Hfirst.
    cbn [negb orb] in Hfirst. apply andb_prop in Hfirst. destruct Hfirst as [_ Hsafe].
    destruct t as [|c1 t]; [discriminate Hsafe|]. cbn [hd app nth] in *.
    exact (proj2 (ns_plain_safe_facts _ _ Hsafe)).
  - destruct w; reflexivity.
  - reflexivity.
  - lia.
  - lia.
  - unfold col_ok. fold m in Hcol. lia.
  - assert (Erev : rev (rest_text more) ++ rev t ++ [c0] = rev ((c0 :: t) ++ rest_text more))
      by (rewrite rev_app_distr; cbn [rev]; reflexivity).
    cbv beta in E. unfold chr in *. rewrite Erev in E. clear Erev. rewrite plain_text_rest.
    assert (Einv : rev (rev ((c0 :: t) ++ rest_text more)) = (c0 :: t) ++ rest_text more) by apply rev_involutive.
    revert E Einv. destruct (rev ((c0 :: t) ++ rest_text more)) as [|x y] eqn:Er; intros E Einv.
    { apply (f_equal (@length N)) in Er. rewrite rev_length in Er. discriminate Er. }
    rewrite (bind_Ok _ _ _ _ _ E).
    unfold pfinish. mstep (eq_refl : get s' = Ok (s', s')).
    assert (Ea : exists s'', (if sc_lws s' then allow_simple_key else ret tt) s' = Ok (tt, s'')).
    { destruct (sc_lws s'); eexists; reflexivity. }
    destruct Ea as [s'' Ea]. mstep Ea. cbn [fst snd]. unfold chr. rewrite Einv.
    eexists. eexists. split; reflexivity.
Qed.
