(* C17, the parser reads its tokens front to back and looks at nothing else.

   [state_machine_reads]: a successful step of the state machine on a parser with token list [c ++ rest'] that leaves
   [rest'] unread does the same on EVERY list that starts with [c] - it has looked at [c] and at nothing behind it.
   Consequence ([step_lean]): if a step stops with [PErrScan] on the list [l] and succeeds on [l ++ [t]], it has
   looked at [t]: nothing is left in [p_toks].  This is what makes Model/Lazy.v lazy: a token is pulled from the
   scanner only when the step looks at it, and between steps the parser holds the one-token cache and nothing else.

   One pass over the state functions, in the two-way form of ParserView.v, with one judgement that composes along
   [do]: [Usim]. *)
From Coq Require Import List NArith Bool Arith Lia.
Import ListNotations.
Require Import Parser ScanRelTop ParserView.
Local Open Scope nat_scope.

(* the parser [p] over the token list [l] *)
Definition rd (p : parser) (l : list token) : parser := set_tok p l (p_token p).

Definition wyp (y : list token) (v : parser) : parser := rd v y.
Definition wyq {A} (y : list token) (v : A * parser) : A * parser := (fst v, rd (snd v) y).
(* what a parser can still look at: the tokens it holds and its cache *)
Definition pst (p : parser) : list token * option token := (p_toks p, p_token p).
Definition tkq {A} (v : A * parser) : list token * option token := pst (snd v).

(* the cache after having read [c], starting with the cache [c0]: empty, or untouched if nothing was read, or the last
   token read *)
Definition cpost (c0 : option token) (c : list token) (cv : option token) : Prop :=
  cv = None \/ (c = [] /\ cv = c0) \/ (exists c' t, c = c' ++ [t] /\ cv = Some t).

Lemma cpost_trans c0 c1 cv1 c2 cv2 : cpost c0 c1 cv1 -> cpost cv1 c2 cv2 -> cpost c0 (c1 ++ c2) cv2.
Proof.
  intros H1 [->|[[-> ->]|(c' & t & -> & ->)]].
  - left. reflexivity.
  - rewrite app_nil_r. exact H1.
  - right. right. exists (c1 ++ c'), t. rewrite app_assoc. auto.
Qed.

(* [r]: the computation on the list (and cache) [st0]; [R l]: the same computation on the list [l] *)
Definition Usim {T} (tk : T -> list token * option token) (wy : list token -> T -> T) (st0 : list token * option token)
           (r : res T) (R : list token -> res T) : Prop :=
  match r with
  | Parser.Ok v => exists c, fst st0 = c ++ fst (tk v) /\ cpost (snd st0) c (snd (tk v))
                             /\ forall y, R (c ++ y) = Parser.Ok (wy y v)
  | _ => True
  end.

Lemma Usim_ret {T} (tk : T -> list token * option token) wy st0 (v : T) R :
  fst (tk v) = fst st0 -> (snd (tk v) = None \/ snd (tk v) = snd st0) ->
  (forall y, R y = Parser.Ok (wy y v)) -> Usim tk wy st0 (Parser.Ok v) R.
Proof.
  intros E C H. exists []. split; [symmetry; exact E|]. split; [|exact H].
  destruct C as [C|C]; [left; exact C|right; left; auto].
Qed.

Lemma Usim_bind {T U} (tk1 : T -> list token * option token) wy1 (tk2 : U -> list token * option token) wy2 st0
      (r : res T) R (k : T -> res U) :
  Usim tk1 wy1 st0 r R ->
  (forall v, Usim tk2 wy2 (tk1 v) (k v) (fun l => k (wy1 l v))) ->
  Usim tk2 wy2 st0
    (match r with Parser.Ok v => k v | Parser.Err e => Parser.Err e | Parser.Panic n => Parser.Panic n end)
    (fun l => match R l with Parser.Ok v => k v | Parser.Err e => Parser.Err e | Parser.Panic n => Parser.Panic n end).
Proof.
  intros H1 H2. destruct r as [v|e|n]; cbn [Usim] in *; auto.
  destruct H1 as (c1 & E1 & C1 & R1). specialize (H2 v). destruct (k v) as [w|e|n]; cbn [Usim] in *; auto.
  destruct H2 as (c2 & E2 & C2 & R2). exists (c1 ++ c2). split; [|split].
  - rewrite E1, E2, app_assoc. reflexivity.
  - eapply cpost_trans; eauto.
  - intros y. rewrite <- app_assoc, R1. apply R2.
Qed.

Lemma Usim_bind_p {U} (tk2 : U -> list token * option token) wy2 st0 (r : res parser) R (k : parser -> res U) :
  Usim pst wyp st0 r R ->
  (forall p, Usim tk2 wy2 (pst p) (k p) (fun l => k (rd p l))) ->
  Usim tk2 wy2 st0
    (match r with Parser.Ok v => k v | Parser.Err e => Parser.Err e | Parser.Panic n => Parser.Panic n end)
    (fun l => match R l with Parser.Ok v => k v | Parser.Err e => Parser.Err e | Parser.Panic n => Parser.Panic n end).
Proof. exact (Usim_bind pst wyp tk2 wy2 st0 r R k). Qed.

Lemma Usim_bind_q {A U} (tk2 : U -> list token * option token) wy2 st0 (r : res (A * parser)) R (k : A * parser -> res U) :
  Usim tkq wyq st0 r R ->
  (forall x p, Usim tk2 wy2 (pst p) (k (x, p)) (fun l => k (x, rd p l))) ->
  Usim tk2 wy2 st0
    (match r with Parser.Ok v => k v | Parser.Err e => Parser.Err e | Parser.Panic n => Parser.Panic n end)
    (fun l => match R l with Parser.Ok v => k v | Parser.Err e => Parser.Err e | Parser.Panic n => Parser.Panic n end).
Proof. intros H1 H2. apply (Usim_bind tkq wyq tk2 wy2 st0 r R k H1). intros [x p]. apply H2. Qed.

(* a sub-computation that does not look at the tokens at all *)
Lemma Usim_bind_pure {X T} (tk : T -> list token * option token) wy st0 (r : res X) (r' : list token -> res X)
      (k : X -> res T) (K : list token -> X -> res T) :
  (forall l, r' l = r) -> (forall x, Usim tk wy st0 (k x) (fun l => K l x)) ->
  Usim tk wy st0
    (match r with Parser.Ok x => k x | Parser.Err e => Parser.Err e | Parser.Panic n => Parser.Panic n end)
    (fun l => match r' l with Parser.Ok x => K l x | Parser.Err e => Parser.Err e | Parser.Panic n => Parser.Panic n end).
Proof.
  intros E H. destruct r as [x|e|n]; [|exact I|exact I]. specialize (H x). destruct (k x) as [v|e|n]; [|exact I|exact I].
  destruct H as (c & A & C & B). exists c. split; [exact A|]. split; [exact C|]. intros y. rewrite E. apply B.
Qed.

Lemma peek_U p : Usim tkq wyq (pst p) (Parser.peek p) (fun l => Parser.peek (rd p l)).
Proof.
  destruct p as [toks c sts st an aid tgs kp]. unfold Parser.peek, rd, pst. cbn [p_token p_toks set_tok].
  destruct c as [t|].
  - apply Usim_ret; [reflexivity|right; reflexivity|intros y; reflexivity].
  - destruct toks as [|t r]; [exact I|]. exists [t]. split; [reflexivity|]. split; [|intros y; reflexivity].
    right. right. exists [], t. split; reflexivity.
Qed.
Lemma pop_state_U p : Usim pst wyp (pst p) (pop_state p) (fun l => pop_state (rd p l)).
Proof.
  destruct p as [toks c sts st an aid tgs kp]. unfold pop_state, rd, pst. cbn [p_states set_tok].
  destruct sts; [exact I|]. apply Usim_ret; [reflexivity|right; reflexivity|intros y; reflexivity].
Qed.

Lemma cpost_weaken c0 c cv : cpost None c cv -> cpost c0 c cv.
Proof. intros [->|[[-> ->]|H]]; [left; reflexivity|left; reflexivity|right; right; exact H]. Qed.

Lemma Usim_conv {T} (tk : T -> list token * option token) wy st0 st1 r (R R' : list token -> res T) :
  Usim tk wy st1 r R' -> fst st0 = fst st1 -> (snd st1 = snd st0 \/ snd st1 = None) -> (forall l, R l = R' l) ->
  Usim tk wy st0 r R.
Proof.
  intros H E0 EC E. destruct r as [v|e|n]; cbn [Usim] in *; auto.
  destruct H as (c & A & C & B). exists c. split; [rewrite E0; exact A|]. split; [|intros y; rewrite E; apply B].
  destruct EC as [EC|EC]; rewrite EC in C; [exact C|apply cpost_weaken, C].
Qed.

Lemma Usim_view {T} (tk : T -> list token * option token) wy (f g : parser -> res T) p :
  (forall q, f q = g q) -> Usim tk wy (pst p) (g p) (fun l => g (rd p l)) ->
  Usim tk wy (pst p) (f p) (fun l => f (rd p l)).
Proof.
  intros E H. rewrite E. eapply Usim_conv; [exact H|reflexivity|left; reflexivity|intros l; apply E].
Qed.

(* a function walked before, called on the parser at hand with some fields set; [reads] collects what has been walked *)
Create HintDb reads.
#[local] Hint Resolve peek_U pop_state_U : reads.
Ltac ucall :=
  eapply Usim_conv;
  [solve [eauto 1 with reads nocore]|reflexivity|first [left; reflexivity|right; reflexivity]|intros; reflexivity].

(* the fields of a parser after updates; [cbn] opens an update only below a projection, so the rest stays as written *)
Ltac uproj :=
  cbn [rd skip set_tok set_state set_states set_anchors set_tags push_state register_anchor
       p_toks p_token p_states p_state p_anchors p_anchor_id p_tags p_keep_tags].

(* One step of the walk.  Both sides run the same code, so a case distinction on what the left side tests decides
   the right side too. *)
Ltac ustep :=
  lazymatch goal with
  | |- Usim _ _ _ (Parser.Ok _) _ =>
      apply Usim_ret; [reflexivity|first [left; reflexivity|right; reflexivity]|intros; reflexivity]
  | |- Usim _ _ _ (Parser.Err _) _ => exact I
  | |- Usim _ _ _ (Parser.Panic _) _ => exact I
  | |- Usim _ _ _ (match ?r with Parser.Ok _ => _ | Parser.Err _ => _ | Parser.Panic _ => _ end) _ =>
      let T := type of r in
      lazymatch T with
      | res parser => eapply Usim_bind_p; [|intros ?p; uproj]
      | res (_ * parser)%type => eapply Usim_bind_q; [|intros ?v ?p; uproj]
      | res _ => eapply Usim_bind_pure; [intros; reflexivity|intros ?v]
      end
  | |- Usim _ _ _ (if ?b then _ else _) _ => destruct b
  | |- Usim _ _ _ (match ?t with _ => _ end) _ => destruct t
  | |- _ => ucall
  end.
Ltac usim := repeat ustep.

Lemma node_props_U p t : Usim tkq wyq (pst p) (node_props p t) (fun l => node_props (rd p l) t).
Proof. apply (Usim_view _ _ _ _ _ (fun q => node_props_if q t)). uproj. usim. Qed.
#[local] Hint Resolve node_props_U : reads.
Lemma node_content_U p aid tg b i :
  Usim tkq wyq (pst p) (node_content p aid tg b i) (fun l => node_content (rd p l) aid tg b i).
Proof. apply (Usim_view _ _ _ _ _ (fun q => node_content_if q aid tg b i)). unfold empty_or_err. usim. Qed.
#[local] Hint Resolve node_content_U : reads.
Lemma parse_node_U p b i : Usim tkq wyq (pst p) (parse_node p b i) (fun l => parse_node (rd p l) b i).
Proof. apply (Usim_view _ _ _ _ _ (fun q => parse_node_if q b i)). usim. Qed.
#[local] Hint Resolve parse_node_U : reads.

Lemma stream_start_U p : Usim tkq wyq (pst p) (stream_start p) (fun l => stream_start (rd p l)).
Proof. unfold stream_start. usim. Qed.

(* The two fuelled loops.  With the same fuel on both sides they are walked like the other functions; the fuel that
   the callers compute from the token list is enough on every list, and more fuel than enough changes nothing. *)
Lemma process_directives_Uf f : forall p vs tags,
  Usim pst wyp (pst p) (process_directives f p vs tags) (fun l => process_directives f (rd p l) vs tags).
Proof. induction f as [|f IH]; intros p vs tags; [exact I|]. cbn [process_directives]. usim. Qed.

Lemma skip_document_ends_Uf f : forall p,
  Usim pst wyp (pst p) (skip_document_ends f p) (fun l => skip_document_ends f (rd p l)).
Proof. induction f as [|f IH]; intros p; [exact I|]. cbn [skip_document_ends]. usim. Qed.

Lemma mes_peek_skip p t p1 : Parser.peek p = Parser.Ok (t, p1) -> S (mes (skip p1)) = mes p.
Proof.
  intros EP. destruct (peek_cases [] p) as [X|(t' & q' & X & _ & M & C)]; rewrite X in EP; [discriminate|].
  inversion EP; subst. rewrite <- M. exact (mes_skip _ _ C).
Qed.

Lemma process_directives_fuel : forall f f' p vs tags q,
  process_directives f p vs tags = Parser.Ok q -> mes p < f' -> process_directives f' p vs tags = Parser.Ok q.
Proof.
  induction f as [|f IH]; intros f' p vs tags q E M; [discriminate|]. destruct f' as [|f']; [lia|].
  cbn [process_directives] in *. destruct (Parser.peek p) as [[[sp k] p1]|e|n] eqn:EP; try discriminate.
  apply mes_peek_skip in EP. destruct k; try exact E.
  - destruct vs; [exact E|]. apply (IH _ _ _ _ _ E). lia.
  - destruct (_ && _); [exact E|]. apply (IH _ _ _ _ _ E). lia.
Qed.

Lemma skip_document_ends_fuel : forall f f' p q,
  skip_document_ends f p = Parser.Ok q -> mes p < f' -> skip_document_ends f' p = Parser.Ok q.
Proof.
  induction f as [|f IH]; intros f' p q E M; [discriminate|]. destruct f' as [|f']; [lia|].
  cbn [skip_document_ends] in *. destruct (Parser.peek p) as [[[sp k] p1]|e|n] eqn:EP; try discriminate.
  apply mes_peek_skip in EP. destruct k; try exact E. apply (IH _ _ _ E). lia.
Qed.

Lemma mes_rd_le p l : mes (rd p l) < S (S (length l)).
Proof. unfold mes, rd. cbn [set_tok p_toks p_token]. destruct (p_token p); lia. Qed.

Lemma Usim_refuel (F : nat -> parser -> res parser) p :
  (forall f p, Usim pst wyp (pst p) (F f p) (fun l => F f (rd p l))) ->
  (forall f f' p q, F f p = Parser.Ok q -> mes p < f' -> F f' p = Parser.Ok q) ->
  Usim pst wyp (pst p) (F (S (S (length (p_toks p)))) p) (fun l => F (S (S (length l))) (rd p l)).
Proof.
  intros HU HF. specialize (HU (S (S (length (p_toks p)))) p). destruct (F _ p) as [q|e|n]; [|exact I|exact I].
  destruct HU as (c & EC & CC & RC). exists c. split; [exact EC|]. split; [exact CC|].
  intros y. apply (HF _ _ _ _ (RC y)). apply mes_rd_le.
Qed.

Lemma process_directives_U p vs tags :
  Usim pst wyp (pst p) (process_directives (S (S (length (p_toks p)))) p vs tags)
       (fun l => process_directives (S (S (length l))) (rd p l) vs tags).
Proof.
  apply (Usim_refuel (fun f p => process_directives f p vs tags)).
  - intros f q. apply process_directives_Uf.
  - intros f f' q q'. apply process_directives_fuel.
Qed.
Lemma skip_document_ends_U p :
  Usim pst wyp (pst p) (skip_document_ends (S (S (length (p_toks p)))) p)
       (fun l => skip_document_ends (S (S (length l))) (rd p l)).
Proof. apply (Usim_refuel skip_document_ends); [exact skip_document_ends_Uf|exact skip_document_ends_fuel]. Qed.
#[local] Hint Resolve process_directives_U skip_document_ends_U : reads.

Lemma explicit_document_start_U p :
  Usim tkq wyq (pst p) (explicit_document_start p) (fun l => explicit_document_start (rd p l)).
Proof. unfold explicit_document_start. usim. Qed.
#[local] Hint Resolve explicit_document_start_U : reads.
Lemma document_start_U p i : Usim tkq wyq (pst p) (document_start p i) (fun l => document_start (rd p l) i).
Proof. apply (Usim_view _ _ _ _ _ (fun q => document_start_if q i)). usim. Qed.
Lemma document_content_U p : Usim tkq wyq (pst p) (document_content p) (fun l => document_content (rd p l)).
Proof. apply (Usim_view _ _ _ _ _ document_content_if). usim. Qed.
Lemma document_end_U p : Usim tkq wyq (pst p) (document_end p) (fun l => document_end (rd p l)).
Proof.
  apply (Usim_view _ _ _ _ _ document_end_if). eapply Usim_bind_q; [ucall|]. intros [sp k] p1.
  destruct (tis TDocumentEnd k); uproj; destruct (p_keep_tags p1); usim.
Qed.
Lemma block_mapping_key_U p b : Usim tkq wyq (pst p) (block_mapping_key p b) (fun l => block_mapping_key (rd p l) b).
Proof. apply (Usim_view _ _ _ _ _ (fun q => block_mapping_key_if q b)). unfold node_or_empty. destruct b; usim. Qed.
Lemma block_mapping_value_U p : Usim tkq wyq (pst p) (block_mapping_value p) (fun l => block_mapping_value (rd p l)).
Proof. apply (Usim_view _ _ _ _ _ block_mapping_value_if). unfold node_or_empty. usim. Qed.
Lemma flow_mapping_key_U p b : Usim tkq wyq (pst p) (flow_mapping_key p b) (fun l => flow_mapping_key (rd p l) b).
Proof. apply (Usim_view _ _ _ _ _ (fun q => flow_mapping_key_if q b)). unfold node_or_empty. destruct b; usim. Qed.
Lemma flow_mapping_value_U p b : Usim tkq wyq (pst p) (flow_mapping_value p b) (fun l => flow_mapping_value (rd p l) b).
Proof. apply (Usim_view _ _ _ _ _ (fun q => flow_mapping_value_if q b)). usim. Qed.
Lemma flow_sequence_entry_U p b : Usim tkq wyq (pst p) (flow_sequence_entry p b) (fun l => flow_sequence_entry (rd p l) b).
Proof. apply (Usim_view _ _ _ _ _ (fun q => flow_sequence_entry_if q b)). destruct b; usim. Qed.
Lemma indentless_sequence_entry_U p :
  Usim tkq wyq (pst p) (indentless_sequence_entry p) (fun l => indentless_sequence_entry (rd p l)).
Proof. apply (Usim_view _ _ _ _ _ indentless_sequence_entry_if). unfold node_or_empty. usim. Qed.
Lemma block_sequence_entry_U p b : Usim tkq wyq (pst p) (block_sequence_entry p b) (fun l => block_sequence_entry (rd p l) b).
Proof. apply (Usim_view _ _ _ _ _ (fun q => block_sequence_entry_if q b)). unfold node_or_empty. destruct b; usim. Qed.
Lemma flow_sequence_entry_mapping_key_U p :
  Usim tkq wyq (pst p) (flow_sequence_entry_mapping_key p) (fun l => flow_sequence_entry_mapping_key (rd p l)).
Proof. apply (Usim_view _ _ _ _ _ flow_sequence_entry_mapping_key_if). unfold node_or_empty. usim. Qed.
Lemma flow_sequence_entry_mapping_value_U p :
  Usim tkq wyq (pst p) (flow_sequence_entry_mapping_value p) (fun l => flow_sequence_entry_mapping_value (rd p l)).
Proof. apply (Usim_view _ _ _ _ _ flow_sequence_entry_mapping_value_if). usim. Qed.
Lemma flow_sequence_entry_mapping_end_U p m :
  Usim tkq wyq (pst p) (flow_sequence_entry_mapping_end p m) (fun l => flow_sequence_entry_mapping_end (rd p l) m).
Proof. unfold flow_sequence_entry_mapping_end. usim. Qed.

#[local] Hint Resolve stream_start_U document_start_U document_content_U document_end_U block_sequence_entry_U
  indentless_sequence_entry_U block_mapping_key_U block_mapping_value_U flow_sequence_entry_U
  flow_sequence_entry_mapping_key_U flow_sequence_entry_mapping_value_U flow_sequence_entry_mapping_end_U
  flow_mapping_key_U flow_mapping_value_U : reads.

Lemma state_machine_U p : Usim tkq wyq (pst p) (state_machine p) (fun l => state_machine (rd p l)).
Proof.
  unfold state_machine. cbn [rd set_tok p_state]. destruct (p_state p); [auto with reads nocore..|exact I].
Qed.

(* A successful step has looked at a prefix [c] of its token list and behaves the same on every list that starts with [c];
   the cache it leaves is empty, or untouched (nothing read), or the last token of [c]. *)
Theorem state_machine_reads p ev q : state_machine p = Parser.Ok (ev, q) ->
  exists c, p_toks p = c ++ p_toks q /\ cpost (p_token p) c (p_token q)
            /\ forall y, state_machine (rd p (c ++ y)) = Parser.Ok (ev, rd q y).
Proof. intros E. pose proof (state_machine_U p) as H. rewrite E in H. exact H. Qed.

(* If the step asks for more on the list [l] and succeeds once ONE more token [t] is there, it has looked at [t]:
   nothing is left over. *)
Theorem step_lean p t ev q :
  state_machine p = Parser.Err PErrScan -> state_machine (ext [t] p) = Parser.Ok (ev, q) -> p_toks q = [].
Proof.
  intros E1 E2. destruct (state_machine_reads _ _ _ E2) as (c & EC & _ & RC).
  destruct (p_toks q) as [|u r] eqn:EQ; [reflexivity|exfalso].
  rewrite p_toks_ext in EC.
  assert (X : exists y, p_toks p = c ++ y).
  { destruct (exists_last (l := u :: r) ltac:(discriminate)) as (r' & u' & ER). rewrite ER, app_assoc in EC.
    apply app_inj_tail in EC. destruct EC as [EC _]. exists r'. exact EC. }
  destruct X as (y & EY). specialize (RC y).
  assert (P : rd (ext [t] p) (c ++ y) = p).
  { destruct p as [toks cc sts st an aid tgs kp]. unfold rd, ext, set_tok in *. cbn in *. rewrite EY. reflexivity. }
  rewrite P, E1 in RC. discriminate.
Qed.
