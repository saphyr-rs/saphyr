(* C15, text level: documents are parsed independently - composition of the scanner's tail independence
   (ScanShiftTop.v), the parser's indifference to spans (ScanPrefixFinalParse.v) and the parser-level composition
   theorem (DocIndep.v), under the explicit hypothesis (i):

     [boundary_reached A B]: the scanner of  A "...\n" B  delivers the tokens of A (StreamEnd removed) and a
     DocumentEnd token and then stands, queue delivered, in the marker configuration at the line break that ends the
     marker line, with B behind the break.

   (i) is the prefix stability of the scanner at a marker line (every scalar scanner ends at "\n...\n" exactly as it
   ends at the end of the input); it is NOT proved here.  Under (i):

     text_composition   run_str A, run_str B accepted  =>  run_str (A "...\n" B) accepted, and its events are the
                        events of A without StreamEnd followed by the events of B without StreamStart, every anchor id
                        of the second part raised by the number of anchored nodes of A. *)
From Coq Require Import List NArith ZArith Bool Arith Lia.
Import ListNotations.
Require Import Parser SBase SPrim SDir SScalar SFetch Pipe C02run DocRun DocShift DocIndep DocIndepRun ScanRun ScanFrame DocScan.
Require Import ScanShift ScanShiftTop.
Require ScanFuelAll ScanSafeStrTop RejectScan ScanPrefixFinalParse.
Local Open Scope nat_scope.

(* 1. run_str = scanner run + parser run; both end properly *)
Definition str_K (y : list chr) : nat := 4 * (4 * str_F y + 20) + 40.
Lemma run_str_scan y :
  run_str y = parse_all (str_K y) (start_parser (fst (str_scan y)) false) (snd (str_scan y)) [].
Proof. exact (run_str_parse y). Qed.
Lemma str_scan_proper y : proper_end (snd (str_scan y)).
Proof.
  pose proof (ScanFuelAll.scanner_never_out_of_fuel y) as NF. cbv zeta in NF.
  pose proof (fun n => ScanSafeStrTop.scanner_never_panics_str (str_F y) (4 * str_F y + 20) y n) as NP.
  unfold str_scan. fold (str_F y) in NF.
  destruct (snd (scan_all sops (str_F y) (4 * str_F y + 20) (init_sc {| si_chars := y; si_look := 0 |}) [])) as [| | n|] eqn:E;
    cbn [proper_end]; auto; first [exact (NP n eq_refl)|exact (NF eq_refl)].
Qed.

(* tail independence at text level (ScanShiftTop.v), both scans being known to end properly *)
Lemma tokens_behind_boundary (X : list chr) k pre (sm : bst) :
  deliver (str_F X) k (init_sc {| si_chars := X; si_look := 0 |}) = Some (pre, sm) -> k <= 4 * str_F X + 20 ->
  marker_config sm -> is_break (rn sm 0) = true ->
  sc_tokens sm = [] -> sc_token_available sm = false -> sc_stream_end sm = false -> (1 <= sc_tokens_parsed sm)%N ->
  fst (str_scan X) = pre ++ map (sht (boundary_shift sm)) (tl (fst (str_scan (boundary_text sm))))
  /\ snd (str_scan X) = she (boundary_shift sm) (snd (str_scan (boundary_text sm))).
Proof.
  intros HD Hk HC HB ET EA EE EP.
  exact (proj2 (tail_independence_text X k pre sm HD Hk HC HB ET EA EE EP) (str_scan_proper _) (str_scan_proper X)).
Qed.

(* a text is accepted exactly when the parser accepts its tokens: the fuel of [run_str] never runs out *)
Lemma run_str_accepts y evs : run_str y = (evs, PDone) -> accepts (fst (str_scan y)) false evs.
Proof.
  rewrite run_str_scan. intros H. apply parse_all_steps in H. destruct H as (e & p & E & HS & HE).
  cbn [rev app] in E. subst e. exists p. split; assumption.
Qed.
Lemma accepts_run_str y evs : accepts (fst (str_scan y)) false evs -> run_str y = (evs, PDone).
Proof.
  intros (p & HS & HE). rewrite run_str_scan.
  destruct (steps_parse_all_fuel _ _ _ HS HE (str_K y) (snd (str_scan y)) []) as [G|[_ G]]; [exact G|].
  exfalso. apply (ScanFuelAll.pipeline_never_out_of_fuel y). rewrite run_str_scan. exact G.
Qed.

(* 2. Hypothesis (i) and the composition *)
Definition dots : list chr := [46; 46; 46; 10]%N.                       (* "...\n" *)
Definition glue_text (A B : list chr) : list chr := A ++ dots ++ B.

(* the tokens of a text: StreamStart first, StreamEnd last and nowhere else *)
Definition tokens_wf (T : list token) : Prop :=
  exists ss t sps, T = ss :: t ++ [(sps, TStreamEnd)] /\ snd ss = TStreamStart
                   /\ Forall (fun x => snd x <> TStreamEnd) t.

(* the token shape of an accepted text *)
(* (a) the scanner delivers a StreamEnd token only as its last token *)
Lemma scan_all_stream_end_last F : forall n (s : bst) acc,
  exists l, fst (scan_all sops F n s acc) = rev acc ++ l /\ Forall (fun x => snd x <> TStreamEnd) (removelast l).
Proof.
  induction n as [|n IH]; intros s acc; cbn [scan_all].
  - exists []. cbn [fst removelast]. rewrite app_nil_r. auto.
  - destruct (next_token sops F s) as [[[t|] s']|e k|p|] eqn:E;
      try (exists []; cbn [fst removelast]; rewrite app_nil_r; split; [reflexivity|constructor]).
    destruct (RejectScan.tok_is_stream_end_dec t) as [Ht|Ht].
    + pose proof (RejectScan.next_token_stream_end F s s' t E Ht) as HE.
      exists [t]. rewrite (scan_all_ended sops F n s' (t :: acc) HE). cbn [rev removelast]. auto.
    + destruct (IH s' (t :: acc)) as (l & EL & HL). exists (t :: l). rewrite EL. cbn [rev]. rewrite <- app_assoc.
      split; [reflexivity|]. destruct l as [|x l]; [constructor|].
      change (removelast (t :: x :: l)) with (t :: removelast (x :: l)). constructor; assumption.
Qed.
(* (b) the tokens of an accepted text contain a StreamEnd token (C06, RejectScan.v: [flow_balanced] is false on a list
   without); hence they are StreamStart ... StreamEnd, StreamEnd nowhere else *)
Theorem accepted_tokens_wf y evs : run_str y = (evs, PDone) -> tokens_wf (fst (str_scan y)).
Proof.
  intros H.
  assert (HP : exists sp, In (sp, TStreamEnd) (fst (str_scan y))).
  { apply (RejectScan.flow_balanced_has_stream_end _ []). apply (RejectScan.text_accepted_implies_balanced y).
    rewrite H. reflexivity. }
  destruct HP as [sp HP].
  assert (HF : exists T, fst (str_scan y) = ss_token :: T).
  { unfold str_scan. replace (4 * str_F y + 20) with (S (4 * str_F y + 19)) by lia. cbn [scan_all].
    rewrite first_token by (unfold str_F; lia). rewrite scan_all_acc. cbn [fst rev app]. eauto. }
  destruct HF as [T ET].
  destruct (scan_all_stream_end_last (str_F y) (4 * str_F y + 20) (init_sc {| si_chars := y; si_look := 0 |}) []) as (l & EL & HL).
  cbn [rev app] in EL. fold (str_scan y) in EL. rewrite ET in EL. subst l.
  (* the StreamEnd token is not among the tokens before the last, so it is the last *)
  destruct (@exists_last _ (ss_token :: T)) as (l' & z & E); [discriminate|].
  rewrite ET in HP. rewrite E in HP, HL. rewrite removelast_last in HL.
  apply in_app_or in HP. destruct HP as [HP|HP].
  { exfalso. rewrite Forall_forall in HL. exact (HL _ HP eq_refl). }
  destruct HP as [->|[]].
  destruct l' as [|a l'].
  { cbn [app] in E. inversion E. }
  cbn [app] in E. inversion E as [[Ea Eb]]. subst a. exists ss_token, l', sp. split; [rewrite ET, Eb; reflexivity|].
  split; [reflexivity|]. inversion HL; assumption.
Qed.

(* HYPOTHESIS (i): prefix stability of the scanner at the marker line *)
Definition boundary_reached (A B : list chr) : Prop :=
  exists k spd (sm : bst),
    deliver (str_F (glue_text A B)) k (init_sc {| si_chars := glue_text A B; si_look := 0 |})
      = Some (removelast (fst (str_scan A)) ++ [(spd, TDocumentEnd)], sm)
    /\ k <= 4 * str_F (glue_text A B) + 20
    /\ marker_config sm /\ is_break (rn sm 0) = true
    /\ sc_tokens sm = [] /\ sc_token_available sm = false /\ sc_stream_end sm = false /\ (1 <= sc_tokens_parsed sm)%N
    /\ boundary_text sm = B.

(* the tokens of the glued text *)
Theorem glued_tokens A B : boundary_reached A B ->
  exists spd d, fst (str_scan (glue_text A B))
                = removelast (fst (str_scan A)) ++ (spd, TDocumentEnd) :: map (sht d) (tl (fst (str_scan B)))
             /\ snd (str_scan (glue_text A B)) = she d (snd (str_scan B)).
Proof.
  intros (k & spd & sm & HD & Hk & HC & HB & ET & EA & EE & EP & EB).
  destruct (tokens_behind_boundary _ k _ sm HD Hk HC HB ET EA EE EP) as [H1 H2]. rewrite EB in H1, H2.
  exists spd, (boundary_shift sm). split; [|exact H2]. rewrite H1, <- app_assoc. reflexivity.
Qed.

(* The events without spans depend on the tokens only up to their spans (ScanPrefixFinalParse.v), and a shift of the
   positions changes nothing else: the composition needs the tokens of the glued text up to their spans only. *)
Theorem composition_up_to_spans A B evA evB spd :
  run_str A = (evA, PDone) -> run_str B = (evB, PDone) ->
  map ScanPrefixFinalParse.etk (fst (str_scan (glue_text A B)))
  = map ScanPrefixFinalParse.etk (removelast (fst (str_scan A)) ++ (spd, TDocumentEnd) :: tl (fst (str_scan B))) ->
  exists evC, run_str (glue_text A B) = (evC, PDone)
              /\ evs_of evC = removelast (evs_of evA) ++ map (shift_ev (count_anchored (evs_of evA))) (tl (evs_of evB)).
Proof.
  intros HA HB ET. destruct (accepted_tokens_wf A evA HA) as (ssA & ta & sps & ETA & HSS & HNE).
  destruct (accepted_tokens_wf B evB HB) as (ssB & tb & spsB & ETB & _).
  apply run_str_accepts in HA, HB. rewrite ETA in HA, ET. rewrite ETB in HB, ET.
  destruct (doc_composition_events ssA ta sps spd ssB tb _ evA evB HSS HNE HA HB) as (ev0 & A0 & EV).
  destruct (ScanPrefixFinalParse.accepts_up_to_spans _ (fst (str_scan (glue_text A B))) _ _ A0) as (evC & AC & EVC).
  { rewrite ET, app_comm_cons, removelast_last. reflexivity. }
  exists evC. split; [exact (accepts_run_str _ _ AC)|rewrite EVC; exact EV].
Qed.

Theorem text_composition A B evA evB :
  run_str A = (evA, PDone) -> run_str B = (evB, PDone) -> boundary_reached A B ->
  exists evC, run_str (glue_text A B) = (evC, PDone)
              /\ evs_of evC = removelast (evs_of evA) ++ map (shift_ev (count_anchored (evs_of evA))) (tl (evs_of evB)).
Proof.
  intros HA HB HI. destruct (glued_tokens A B HI) as (spd & d & ETX & _).
  apply (composition_up_to_spans A B evA evB spd HA HB). rewrite ETX, !map_app. cbn [map]. rewrite map_map. reflexivity.
Qed.

Print Assumptions accepted_tokens_wf.
Print Assumptions glued_tokens.
Print Assumptions text_composition.
