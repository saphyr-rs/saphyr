(* C14 (see ScanBrk.v): the QUOTED (flow) SCALAR family - the walk of ScanLockFlow.v at the lock [brk_lock md].
   A line break (LF on side 1, CR LF / CR on side 2) is consumed as one step by [skip_break] (line folding) or by
   [skip_linebreak] (the escaped line break of a double-quoted scalar). *)
Require Import ScanBrk.
Require ScanLockFlow.

Theorem scan_flow_scalar_ok md : brk_scan_flow_scalar md.
Proof. exact (ScanLockFlow.scan_flow_scalar_ok (brk_lock md)). Qed.

Print Assumptions scan_flow_scalar_ok.
