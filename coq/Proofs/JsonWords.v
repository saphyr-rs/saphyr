(* C13, scanner half (0): the lexical side of Spec/Json.v against the vocabulary of the scanner proofs.
   - the text between the quotes of a JSON string (str_text) is a segment of well-formed double-quoted items
     (Spec/FlowFold.v: literal characters, named escapes, \uXXXX) with the same source and the same value;
   - an RFC 8259 number and the three literals are words (JsonScanPlain.jword). *)
From Coq Require Import List NArith ZArith Bool Arith Lia.
Import ListNotations.
Require Import Parser SBase Resolver CoreSchema CoreNumber Json FlowFold JsonScanBase JsonScanPlain.
Require ResolverProofs.
Open Scope N_scope.

Ltac uc := unfold Resolver.chr, SBase.chr, Resolver.str, Parser.str in *.

(* strings *)
Lemma to_digit16_hex c x : to_digit 16 c = Some x -> hex_digit_value c = Some x /\ x < 16.
Proof.
  intros H. apply ResolverProofs.to_digit_spec in H as [L H]. split; [|exact L]. unfold hex_digit_value.
  destruct H as [[R ->]|[[R ->]|[R ->]]].
  - replace ((48 <=? c) && (c <=? 57)) with true by (symmetry; rewrite andb_true_iff, !N.leb_le; exact R). reflexivity.
  - replace ((48 <=? c) && (c <=? 57)) with false by (symmetry; rewrite andb_false_iff, !N.leb_gt; lia).
    replace ((65 <=? c) && (c <=? 70)) with false by (symmetry; rewrite andb_false_iff, !N.leb_gt; lia).
    replace ((97 <=? c) && (c <=? 102)) with true by (symmetry; rewrite andb_true_iff, !N.leb_le; lia).
    f_equal. lia.
  - replace ((48 <=? c) && (c <=? 57)) with false by (symmetry; rewrite andb_false_iff, !N.leb_gt; lia).
    replace ((65 <=? c) && (c <=? 70)) with true by (symmetry; rewrite andb_true_iff, !N.leb_le; lia).
    f_equal. lia.
Qed.

Lemma hex4_value a b c d x : hex4 a b c d = Some x -> hex_value [a; b; c; d] = Some x /\ x < 65536.
Proof.
  unfold hex4. destruct (to_digit 16 a) as [xa|] eqn:Ea; [|discriminate]. destruct (to_digit 16 b) as [xb|] eqn:Eb; [|discriminate].
  destruct (to_digit 16 c) as [xc|] eqn:Ec; [|discriminate]. destruct (to_digit 16 d) as [xd|] eqn:Ed; [|discriminate].
  intros H. inversion H; subst. clear H.
  destruct (to_digit16_hex _ _ Ea) as [Ha La]. destruct (to_digit16_hex _ _ Eb) as [Hb Lb].
  destruct (to_digit16_hex _ _ Ec) as [Hc Lc]. destruct (to_digit16_hex _ _ Ed) as [Hd Ld].
  unfold hex_value. cbn [hex_value_from]. rewrite Ha, Hb, Hc, Hd. split; [f_equal; lia|lia].
Qed.

Lemma str_items s t : str_text s t ->
  exists items, forallb item_wf items = true /\ flat_map item_src items = t /\ map item_val items = s /\ (length items <= length t)%nat.
Proof.
  induction 1 as [|c s t H32 Hmax H34 H92 Hsur _ IH|e c s t Hin _ IH|a b c d x s t Hhex Hsur _ IH].
  - exists []. repeat split; auto.
  - destruct IH as (items & Hwf & Hsrc & Hval & Hlen). exists (ILit c :: items).
    cbn [forallb flat_map map item_src item_val item_wf app length]. rewrite Hwf, Hsrc, Hval. repeat split; [|lia].
    rewrite andb_true_r. unfold spec_dq_literal, is_sp, Resolver.ch in *. rewrite Hmax, H34, H92. cbn [negb andb].
    rewrite !andb_true_r. apply N.leb_le in H32. destruct (N.eqb_spec c 32) as [->|Hne]; [reflexivity|].
    replace (32 <? c) with true by (symmetry; apply N.ltb_lt; lia). reflexivity.
  - destruct IH as (items & Hwf & Hsrc & Hval & Hlen). exists (INamed e c :: items).
    cbn [forallb flat_map map item_src item_val item_wf app length]. rewrite Hwf, Hsrc, Hval. repeat split; [|lia].
    rewrite andb_true_r. unfold simple_escapes in Hin. cbn [In] in Hin.
    repeat (destruct Hin as [Hin|Hin]; [inversion Hin; subst; reflexivity|]). contradiction.
  - destruct IH as (items & Hwf & Hsrc & Hval & Hlen). exists (IHex 117 [a; b; c; d] x :: items).
    destruct (hex4_value a b c d x Hhex) as [Hv Hlt].
    cbn [forallb flat_map map item_src item_val item_wf app length]. rewrite Hwf, Hsrc, Hval. repeat split; [|lia].
    rewrite andb_true_r. rewrite Hv. cbn [opt_N_eqb]. rewrite N.eqb_refl. cbn.
    unfold spec_scalar_value. unfold surrogate in Hsur.
    destruct (55296 <=? x) eqn:A.
    + cbn [andb] in Hsur. apply N.leb_gt in Hsur.
      replace (57344 <=? x) with true by (symmetry; apply N.leb_le; lia).
      replace (x <=? 1114111) with true by (symmetry; apply N.leb_le; lia). apply orb_true_r.
    + apply N.leb_gt in A. replace (x <=? 55295) with true by (symmetry; apply N.leb_le; lia). reflexivity.
Qed.

(* numbers and literals *)
Lemma dig_wchar c : is_dig c = true -> wchar c = true.
Proof. unfold is_dig, wchar. intros ->. reflexivity. Qed.
Lemma digs_wchar l : forallb is_dig l = true -> forallb wchar l = true.
Proof. induction l as [|c l IH]; [reflexivity|]. cbn [forallb]. intros H. apply andb_prop in H as [A B]. rewrite (dig_wchar c A), (IH B). reflexivity. Qed.

Lemma json_exp_wchar r : json_exp r = true -> forallb wchar r = true.
Proof.
  destruct r as [|c r']; [reflexivity|]. cbn [json_exp forallb]. intros H. apply andb_prop in H as [Hc H].
  assert (Hcw : wchar c = true).
  { unfold Resolver.ch in Hc. apply orb_prop in Hc as [Hc|Hc]; apply N.eqb_eq in Hc; subst c; reflexivity. }
  rewrite Hcw. cbn [andb]. unfold sign_split in H. destruct r' as [|x r'']; [discriminate|].
  unfold Resolver.ch in H. destruct (N.eqb_spec x 43) as [->|H43].
  - apply andb_prop in H as [_ H]. cbn [forallb]. change (wchar 43) with true. cbn [andb]. apply digs_wchar. exact H.
  - destruct (N.eqb_spec x 45) as [->|H45].
    + apply andb_prop in H as [_ H]. cbn [forallb]. change (wchar 45) with true. cbn [andb]. apply digs_wchar. exact H.
    + apply andb_prop in H as [_ H]. apply digs_wchar. exact H.
Qed.

Lemma json_unsigned_word b : json_unsigned b = true ->
  forallb wchar b = true /\ exists d r, b = d :: r /\ is_dig d = true.
Proof.
  unfold json_unsigned. destruct (span_digits b) as [ip r1] eqn:E. destruct (span_digits_spec _ _ _ E) as [-> Hip].
  intros H. apply andb_prop in H as [Hok H].
  assert (Hne : exists d ip', ip = d :: ip') by (destruct ip as [|d ip']; [discriminate|eauto]).
  destruct Hne as (d & ip' & ->). split.
  - uc. rewrite forallb_app. rewrite (digs_wchar _ Hip). cbn [andb].
    destruct r1 as [|c r]; [reflexivity|]. unfold Resolver.ch in H. destruct (N.eqb_spec c 46) as [->|Hne].
    + destruct (span_digits r) as [fp r2] eqn:E2. destruct (span_digits_spec _ _ _ E2) as [-> Hfp].
      apply andb_prop in H as [_ H]. cbn [forallb]. change (wchar 46) with true. cbn [andb].
      uc. rewrite forallb_app. rewrite (digs_wchar _ Hfp), (json_exp_wchar _ H). reflexivity.
    + apply json_exp_wchar. exact H.
  - exists d, (ip' ++ r1). split; [reflexivity|]. cbn [forallb] in Hip. apply andb_prop in Hip as [A _]. exact A.
Qed.

Lemma is_dig_digit c : is_dig c = is_digit c.
Proof. reflexivity. Qed.

Lemma json_number_jword t : json_number t = true -> jword t = true.
Proof.
  unfold json_number. destruct t as [|c r]; [discriminate|]. unfold Resolver.ch. destruct (N.eqb_spec c 45) as [->|Hne].
  - intros H. destruct (json_unsigned_word r H) as [Hw (d & r' & -> & Hd)].
    unfold jword. cbn [forallb]. change (wchar 45) with true. cbn [andb nth]. uc. cbn [forallb] in Hw. rewrite Hw. cbn [andb negb orb].
    change (45 =? 46) with false. cbn [negb andb]. change (45 =? 45) with true. cbn [negb orb]. rewrite <- is_dig_digit. exact Hd.
  - intros H. destruct (json_unsigned_word (c :: r) H) as [Hw (d & r' & E & Hd)]. inversion E; subst d r'.
    unfold jword. uc. rewrite Hw. cbn [andb].
    assert (H46 : (c =? 46) = false).
    { unfold is_dig in Hd. apply andb_prop in Hd as [A B]. apply N.leb_le in A. apply N.eqb_neq. lia. }
    rewrite H46. apply N.eqb_neq in Hne. rewrite Hne. reflexivity.
Qed.

Lemma literal_jword : jword s_null = true /\ jword s_true = true /\ jword s_false = true.
Proof. repeat split; reflexivity. Qed.
