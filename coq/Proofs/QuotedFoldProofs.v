(* C04 — quoted scalars over several lines: scan_flow_scalar (Model/SScalar.v) over the string input returns exactly
   the text that the specification (Spec/FlowFold.v: dq_layout_wf / sq_layout_wf, dq_render / sq_render, dq_text)
   assigns to the presentation: line folding (one break -> space, k+1 breaks -> k line feeds, blanks around a break
   dropped), escaped breaks, escapes, doubled quotes. *)
From Coq Require Import List NArith ZArith Bool Arith Lia.
Import ListNotations.
Require Import Parser SBase SPrim SDir SScalar SFetch Pipe FlowFold FlowScalarProofs PlainScalarProofs.
Open Scope N_scope.

Arguments N.add : simpl never.
Arguments N.sub : simpl never.
Arguments N.mul : simpl never.
Arguments N.eqb : simpl never.
Arguments N.ltb : simpl never.
Arguments N.leb : simpl never.
Arguments Nat.max : simpl never.
Arguments Nat.leb : simpl never.
Arguments Nat.ltb : simpl never.
Arguments Nat.sub : simpl never.
Open Scope mon_scope.

(* the blank loop of scan_flow_scalar, step by step *)
Section FB.
Variable s0 : sc strin.
Notation ops := str_ops.
Notation st := (st_with s0).
Notation fblanks := (flow_blanks ops).

Definition colq_ok (m : marker) : Prop := (sc_indent s0 <= Z.of_N (m_col m))%Z.
Lemma colq_ok_adv k m : colq_ok m -> colq_ok (adv k m).
Proof. unfold colq_ok. rewrite adv_col. lia. Qed.


Lemma fb_blank_skip fb lb tb ws b r l m w :
  is_blank b = true -> (b = 9 -> (sc_indent s0 <= Z.of_N (m_col m))%Z) ->
  fblanks (S fb) true lb tb ws (st (b :: r) l m w) = fblanks fb true lb tb ws (st r (Nat.max l 1) (adv 1 m) w).
Proof.
  intros Hb Ht. cbn [flow_blanks]. unfold peek. mstep (peekn_st 0 s0 (b :: r) l m w). cbn [nth]. rewrite Hb.
  assert (Hlt : col_lt_indent (st (b :: r) l m w) = Ok ((Z.of_N (m_col m) <? sc_indent s0)%Z, st (b :: r) l m w)) by reflexivity.
  mstep Hlt.
  replace ((b =? 9) && (Z.of_N (m_col m) <? sc_indent s0)%Z) with false.
  2:{ symmetry. destruct (N.eqb_spec b 9) as [E|E]; [|reflexivity]. cbn [andb]. apply Z.ltb_ge. exact (Ht E). }
  mstep (skip_blank_st s0 (b :: r) l m w). cbn [tl].
  mstep (look_st 1 s0 r l (adv 1 m) w). reflexivity.
Qed.

Lemma fb_nl_first k fb lb tb ws r l m w :
  cr_ok k r ->
  fblanks (S fb) false lb tb ws (st (nl_src k ++ r) l m w) = fblanks fb true true tb [] (st r (Nat.max (Nat.max l 2) 1) (nl_mark k m) true).
Proof.
  intros Hk. destruct (nl_head k r) as [H1 H2].
  cbn [flow_blanks]. unfold peek. mstep (peekn_st 0 s0 (nl_src k ++ r) l m w). rewrite H1, H2.
  mstep (look_st 2 s0 (nl_src k ++ r) l m w).
  mstep (skip_break_nl s0 k r (Nat.max l 2) m w Hk).
  mstep (look_st 1 s0 r (Nat.max l 2) (nl_mark k m) true). reflexivity.
Qed.

Lemma fb_nl_more k fb lb tb ws r l m w :
  cr_ok k r ->
  fblanks (S fb) true lb tb ws (st (nl_src k ++ r) l m w) = fblanks fb true lb (tb + 1) ws (st r (Nat.max (Nat.max l 2) 1) (nl_mark k m) true).
Proof.
  intros Hk. destruct (nl_head k r) as [H1 H2].
  cbn [flow_blanks]. unfold peek. mstep (peekn_st 0 s0 (nl_src k ++ r) l m w). rewrite H1, H2.
  mstep (look_st 2 s0 (nl_src k ++ r) l m w).
  mstep (skip_break_nl s0 k r (Nat.max l 2) m w Hk).
  mstep (look_st 1 s0 r (Nat.max l 2) (nl_mark k m) true). reflexivity.
Qed.

(* runs of blanks *)
Lemma fb_blanks_ws : forall bs fb lb tb ws r l m w,
  forallb is_sp bs = true ->
  exists l', fblanks (length bs + fb) false lb tb ws (st (bs ++ r) l m w)
             = fblanks fb false lb tb (rev bs ++ ws) (st r l' (adv (N.of_nat (length bs)) m) w).
Proof.
  induction bs as [|b bs IH]; intros fb lb tb ws r l m w H.
  - exists l. cbn [length app rev Nat.add]. change (N.of_nat 0) with 0. rewrite adv_0. reflexivity.
  - cbn [forallb] in H. apply andb_prop in H. destruct H as [Hb H].
    destruct (IH fb lb tb (b :: ws) r (Nat.max l 1) (adv 1 m) w H) as [l' E]. exists l'.
    cbn [length app Nat.add]. rewrite fb_blank_ws by exact Hb. rewrite E.
    rewrite adv_1_n. cbn [rev]. rewrite <- app_assoc. reflexivity.
Qed.

Lemma fb_blanks_skip : forall bs fb lb tb ws r l m w,
  forallb is_sp bs = true -> tabs_ok s0 (m_col m) bs ->
  exists l', fblanks (length bs + fb) true lb tb ws (st (bs ++ r) l m w)
             = fblanks fb true lb tb ws (st r l' (adv (N.of_nat (length bs)) m) w).
Proof.
  induction bs as [|b bs IH]; intros fb lb tb ws r l m w H Ht.
  - exists l. cbn [length app Nat.add]. change (N.of_nat 0) with 0. rewrite adv_0. reflexivity.
  - cbn [forallb] in H. apply andb_prop in H. destruct H as [Hb H]. destruct Ht as [Ht1 Ht2].
    destruct (IH fb lb tb ws r (Nat.max l 1) (adv 1 m) w H Ht2) as [l' E]. exists l'.
    cbn [length app Nat.add]. rewrite fb_blank_skip; [|exact Hb|intros E9; specialize (Ht1 E9); lia].
    rewrite E. rewrite adv_1_n. reflexivity.
Qed.

(* the lines of a break *)
Variable n : nat.
Hypothesis Hn : (sc_indent s0 < Z.of_nat n)%Z.
Let Hn' : (sc_indent s0 + 1 <= Z.of_nat n)%Z.
Proof. lia. Qed.

Lemma empties_blank_q es : forallb (empty_wf n) es = true -> Forall (fun e => forallb is_sp e = true) es.
Proof.
  intros H. apply Forall_forall. intros e Hin.
  exact (proj1 (empty_wf_facts s0 128 (le_n _) n Hn' e (proj1 (forallb_forall _ _) H e Hin))).
Qed.

Lemma fb_empties k : forall es fb lb tb ws r l m w,
  forallb (empty_wf n) es = true -> m_col m = 0 -> cr_ok k r ->
  exists l' m', m_col m' = 0 /\
    fblanks (ecost es + fb) true lb tb ws (st (flat_map (fun e => e ++ nl_src k) es ++ r) l m w)
    = fblanks fb true lb (tb + N.of_nat (length es)) ws (st r l' m' (match es with [] => w | _ => true end)).
Proof.
  induction es as [|e es IH]; intros fb lb tb ws r l m w H Hm Hr.
  - exists l, m. split; [exact Hm|]. cbn [ecost flat_map length app Nat.add]. change (N.of_nat 0) with 0. rewrite N.add_0_r. reflexivity.
  - assert (Hbl := empties_blank_q _ H).
    cbn [forallb] in H. apply andb_prop in H. destruct H as [He H].
    destruct (empty_wf_facts s0 128 (le_n _) n Hn' e He) as [Hs Ht].
    unfold ecost in *. cbn [flat_map]. rewrite !app_length, <- !app_assoc. cbn [length app].
    match goal with |- context [(length e + 1 + ?c + fb)%nat] =>
      replace (length e + 1 + c + fb)%nat with (length e + S (c + fb))%nat by lia end.
    destruct (fb_blanks_skip e (S (length (flat_map (fun e0 => e0 ++ [10]) es) + fb)) lb tb ws
                (nl_src k ++ flat_map (fun e0 => e0 ++ nl_src k) es ++ r) l m w Hs ltac:(rewrite Hm; exact Ht)) as [l1 E1].
    destruct (IH fb lb (tb + 1) ws r (Nat.max (Nat.max l1 2) 1) (nl_mark k (adv (N.of_nat (length e)) m)) true H (nl_mark_col _ _) Hr)
      as [l' [m' [Hm' E]]].
    exists l', m'. split; [exact Hm'|].
    rewrite E1. rewrite fb_nl_more.
    2:{ inversion Hbl; subst. apply cr_ok_flat; assumption. }
    rewrite E.
    replace (match es with [] => true | _ :: _ => true end) with true by (destruct es; reflexivity).
    f_equal. lia.
Qed.

(* the lines of a break behind its first line break: empty lines, then the indentation of the next segment *)
Lemma fb_brk_lines b fb lb x r l m w :
  brk_wf n b = true -> is_blank x = false -> is_break x = false -> m_col m = 0 ->
  exists l' m' w', m_col m' = N.of_nat (length (bl_indent b)) /\ colq_ok m' /\
    fblanks (ecost (bl_empties b) + length (bl_indent b) + S fb) true lb 0 []
            (st (flat_map (fun e => e ++ nl_src (bl_nl b)) (bl_empties b) ++ bl_indent b ++ x :: r) l m w)
    = Ok ((true, lb, N.of_nat (length (bl_empties b)), []), st (x :: r) l' m' w').
Proof.
  intros Hw Hx Hk Hm. destruct (brk_wf_parts n b Hw) as [_ [_ [Hes Hind]]].
  destruct (indent_wf_facts s0 mk0 128 (le_n _) n Hn' _ Hind) as [Hi1 [Hi2 Hi3]].
  assert (Hcr : cr_ok (bl_nl b) (bl_indent b ++ x :: r)) by (apply cr_ok_blanks; assumption).
  replace (ecost (bl_empties b) + length (bl_indent b) + S fb)%nat with (ecost (bl_empties b) + (length (bl_indent b) + S fb))%nat by lia.
  destruct (fb_empties (bl_nl b) (bl_empties b) (length (bl_indent b) + S fb) lb 0 [] (bl_indent b ++ x :: r) l m w Hes Hm Hcr)
    as [l2 [m2 [Hm2 E2]]].
  destruct (fb_blanks_skip (bl_indent b) (S fb) lb (0 + N.of_nat (length (bl_empties b))) [] (x :: r) l2 m2
              (match bl_empties b with [] => w | _ => true end) Hi1 ltac:(rewrite Hm2; exact Hi2)) as [l3 E3].
  exists l3, (adv (N.of_nat (length (bl_indent b))) m2), (match bl_empties b with [] => w | _ => true end).
  split; [rewrite adv_col, Hm2; lia|]. split.
  { unfold colq_ok. unfold col_ok in Hi3. rewrite adv_col, Hm2. rewrite adv_col, nlm_col in Hi3. lia. }
  rewrite E2, E3. rewrite fb_stop by assumption. rewrite N.add_0_l. reflexivity.
Qed.

(* a folded break, from its trailing blank padding to the first character of the next segment *)
Lemma fb_brk b fb x r l m w :
  brk_wf n b = true -> bl_escaped b = false -> is_blank x = false -> is_break x = false ->
  exists l' m' w', m_col m' = N.of_nat (length (bl_indent b)) /\ colq_ok m' /\
    fblanks (brk_cost b + S fb) false false 0 [] (st (render_brk b ++ x :: r) l m w)
    = Ok ((true, true, N.of_nat (length (bl_empties b)), []), st (x :: r) l' m' w').
Proof.
  intros Hw He Hx Hk. destruct (brk_wf_parts n b Hw) as [Hpad [_ [Hes Hind]]].
  unfold render_brk, brk_cost. rewrite He. cbn [app]. rewrite <- !app_assoc.
  replace (length (bl_pad b) + S (ecost (bl_empties b) + length (bl_indent b)) + S fb)%nat
    with (length (bl_pad b) + S (ecost (bl_empties b) + length (bl_indent b) + S fb))%nat by lia.
  destruct (fb_blanks_ws (bl_pad b) (S (ecost (bl_empties b) + length (bl_indent b) + S fb))
              false 0 [] (nl_src (bl_nl b) ++ flat_map (fun e => e ++ nl_src (bl_nl b)) (bl_empties b) ++ bl_indent b ++ x :: r) l m w Hpad) as [l1 E1].
  destruct (fb_brk_lines b fb true x r (Nat.max (Nat.max l1 2) 1) (nl_mark (bl_nl b) (adv (N.of_nat (length (bl_pad b))) m)) true
              Hw Hx Hk (nl_mark_col _ _)) as [l' [m' [w' [Hc [Hm' E2]]]]].
  exists l', m', w'. split; [exact Hc|]. split; [exact Hm'|].
  rewrite E1. rewrite fb_nl_first; [exact E2|].
  apply cr_ok_flat; [apply empties_blank_q; exact Hes|apply cr_ok_blanks; [|exact Hk]].
  unfold indent_wf in Hind. apply andb_prop in Hind. exact (proj1 Hind).
Qed.
End FB.

(* items: what a segment of a quoted scalar is made of *)
Definition iwf (single : bool) : dq_item -> bool := if single then sq_item_wf else item_wf.
Definition isrc (single : bool) : dq_item -> list N := if single then sq_src else item_src.
Definition ssrc (single : bool) (seg : list dq_item) : list N := flat_map (isrc single) seg.

(* does the segment (or, when it is empty, what precedes it: [d]) end with a literal blank? *)
Definition ends_blank (d : bool) (items : list dq_item) : bool :=
  match rev items with i :: _ => is_lit_blank i | [] => d end.
Lemma ends_blank_cons d i items : ends_blank d (i :: items) = ends_blank (is_lit_blank i) items.
Proof.
  unfold ends_blank. cbn [rev]. destruct (rev items) as [|j r]; reflexivity.
Qed.
Lemma ends_blank_last items : ends_blank false items = last_is_lit_blank items.
Proof. reflexivity. Qed.

Lemma ssrc_len single seg : (length seg <= length (ssrc single seg))%nat.
Proof.
  induction seg as [|i seg IH]; [cbn; lia|]. cbn [ssrc flat_map length]. fold (ssrc single seg). rewrite app_length.
  assert (1 <= length (isrc single i))%nat; [|lia].
  destruct single, i as [c| |]; cbn [isrc sq_src item_src length]; try lia. destruct (c =? 39); cbn [length]; lia.
Qed.

Lemma lit_blank_inv single i : iwf single i = true -> is_lit_blank i = true ->
  exists c, i = ILit c /\ is_sp c = true /\ isrc single i = [c] /\ item_val i = c.
Proof.
  intros _ H. destruct i as [c| |]; try discriminate H. exists c. cbn [is_lit_blank] in H.
  repeat split; [exact H|]. destruct single; [|reflexivity]. cbn [isrc sq_src].
  destruct (blank_cases c H) as [->| ->]; reflexivity.
Qed.

Lemma dq_literal_ordinary c : spec_dq_literal c = true -> ordinary false c = true.
Proof.
  unfold spec_dq_literal, ordinary. intros H. repeat (apply andb_prop in H; destruct H as [H ?]).
  apply N.ltb_lt in H.
  match goal with H1 : negb (c =? 34) = true, H2 : negb (c =? 92) = true |- _ => rewrite H1, H2 end.
  cbn [orb andb]. rewrite andb_true_r. apply negb_true_iff.
  unfold is_blank_or_breakz, is_blank, is_breakz, is_break, is_z.
  repeat match goal with |- context [c =? ?k] => destruct (N.eqb_spec c k); [lia|] end. reflexivity.
Qed.
Lemma sq_literal_ordinary c : (32 <? c) && (c <=? 1114111) = true -> ordinary true c = true.
Proof.
  unfold ordinary. intros H. apply andb_prop in H. destruct H as [H _]. apply N.ltb_lt in H.
  cbn [orb]. rewrite andb_true_r. apply negb_true_iff.
  unfold is_blank_or_breakz, is_blank, is_breakz, is_break, is_z.
  repeat match goal with |- context [c =? ?k] => destruct (N.eqb_spec c k); [lia|] end. reflexivity.
Qed.
Lemma opt_N_eqb_eq a b : opt_N_eqb a b = true -> a = b.
Proof. destruct a, b; cbn; intros H; try discriminate; try reflexivity. apply N.eqb_eq in H. subst. reflexivity. Qed.

(* a well-formed item that is not a literal blank is what FlowScalarProofs.item_ok demands (double quotes) *)
Lemma item_wf_ok i : item_wf i = true -> is_lit_blank i = false -> item_ok i.
Proof.
  destruct i as [c|e v|e ds v]; cbn [item_wf is_lit_blank item_ok]; intros H Hb.
  - rewrite Hb in H. rewrite orb_false_r in H. apply dq_literal_ordinary. exact H.
  - apply opt_N_eqb_eq. exact H.
  - apply andb_prop in H. destruct H as [H Hs]. apply andb_prop in H. destruct H as [He Hv].
    split; [|split; [apply opt_N_eqb_eq; exact Hv|exact Hs]].
    apply existsb_exists in He. destruct He as [[e' n'] [Hin Hp]]. cbn [fst snd] in Hp.
    apply andb_prop in Hp. destruct Hp as [H1 H2]. apply N.eqb_eq in H1. apply Nat.eqb_eq in H2. subst. exact Hin.
Qed.

Section QLoop.
Variable F : nat.
Variable single : bool.
Variable start : marker.
Variable s0 : sc strin.
Notation ops := str_ops.
Notation st := (st_with s0).
Notation q := (quote_of single).
Notation go_t := (list chr -> bool -> N -> list chr -> @M strin (list chr)).

(* one item that is not a literal blank, inside the character loop *)
Lemma item_step i fuel acc l m w tail (K : list chr * bool -> @M strin (list chr)) :
  iwf single i = true -> is_lit_blank i = false ->
  exists l',
    bind (consume_nonws ops (S fuel) single acc start) K (st (isrc single i ++ tail) l m w)
    = bind (consume_nonws ops fuel single (item_val i :: acc) start) K
           (st tail l' (adv (N.of_nat (length (isrc single i))) m) false).
Proof.
  intros Hwf Hb. destruct single eqn:Es; cbn [iwf isrc] in *.
  - (* single quotes: literal characters only *)
    destruct i as [c| |]; try discriminate Hwf. cbn [sq_item_wf is_lit_blank] in *. rewrite Hb, orb_false_r in Hwf.
    pose proof (sq_literal_ordinary c Hwf) as Ho.
    exists (Nat.max l 2). apply bind_congr.
    pose proof (consume_nonws_step true c fuel acc start s0 tail l m w Ho) as S1.
    unfold enc1 in S1. cbn [andb sq_src item_val] in *. exact S1.
  - pose proof (item_wf_ok i Hwf Hb) as Hok.
    destruct i as [c|e v|e ds v]; cbn [item_ok item_src item_val] in *.
    + exists (Nat.max l 2). apply bind_congr.
      exact (consume_nonws_step false c fuel acc start s0 tail l m w Hok).
    + exists (Nat.max l 2). cbn [app].
      rewrite (bind_congr _ _ _ _ _ (consume_nonws_escape fuel acc start s0 e tail l m w (named_not_break e v Hok))).
      rewrite bind_assoc. mstep (resolve_escape_named start s0 e v tail (Nat.max l 2) m w Hok). reflexivity.
    + destruct Hok as [Hin [Hv Hsv]]. exists (Nat.max (Nat.max l 2) (length ds)). cbn [app].
      rewrite (bind_congr _ _ _ _ _ (consume_nonws_escape fuel acc start s0 e (ds ++ tail) l m w (numeric_not_break e _ Hin))).
      rewrite bind_assoc.
      pose proof (resolve_escape_numeric start s0 e (length ds) ds v tail (Nat.max l 2) m w Hin eq_refl Hv) as R.
      rewrite Hsv in R. mstep R. cbv beta. rewrite adv_adv.
      replace (N.of_nat (length (92 :: e :: ds))) with (2 + N.of_nat (length ds)) by (cbn [length]; lia).
      reflexivity.
Qed.

(* the first character of an item that is not a literal blank: not a blank, a break, NUL; not '-' or '.' only matters
   at the start of a line (handled through marker_at_col0) *)
Lemma item_first i : iwf single i = true -> is_lit_blank i = false ->
  exists x0 r0, isrc single i = x0 :: r0 /\ plain_head x0 /\ (single = false -> x0 <> 34).
Proof.
  intros Hwf Hb. destruct single eqn:Es; cbn [iwf isrc] in *.
  - destruct i as [c| |]; try discriminate Hwf. cbn [sq_item_wf is_lit_blank] in *. rewrite Hb, orb_false_r in Hwf.
    destruct (ordinary_not_bbz true c (sq_literal_ordinary c Hwf)) as [H1 [H2 H3]].
    cbn [sq_src]. destruct (c =? 39) eqn:E.
    + apply N.eqb_eq in E. subst c. exists 39, [39]. split; [reflexivity|]. split; [repeat split|discriminate].
    + exists c, []. split; [reflexivity|]. split; [repeat split; assumption|discriminate].
  - pose proof (item_wf_ok i Hwf Hb) as Hok.
    destruct i as [c|e v|e ds v]; cbn [item_ok item_src] in *.
    + exists c, []. split; [reflexivity|]. split; [exact (ordinary_not_bbz false c Hok)|].
      intros _ ->. discriminate Hok.
    + exists 92, [e]. split; [reflexivity|]. split; [repeat split|discriminate].
    + exists 92, (e :: ds). split; [reflexivity|]. split; [repeat split|discriminate].
Qed.

Lemma seg_head seg x' (tail' : list N) :
  forallb (iwf single) seg = true -> first_is_lit_blank seg = false -> (seg = [] -> plain_head x') ->
  exists x1 r1, ssrc single seg ++ x' :: tail' = x1 :: r1 /\ is_blank x1 = false /\ is_break x1 = false
                /\ (seg <> [] -> single = false -> x1 <> 34).
Proof.
  intros Hwf Hfirst Hnil. destruct seg as [|i seg].
  - destruct (Hnil eq_refl) as [H1 [H2 _]]. exists x', tail'. repeat split; [exact H1|exact H2|]. intros H; contradiction.
  - cbn [forallb] in Hwf. apply andb_prop in Hwf. destruct Hwf as [Hi _].
    destruct (item_first i Hi Hfirst) as [x0 [r0 [Ex [[H1 [H2 _]] H34]]]].
    cbn [ssrc flat_map]. rewrite Ex. cbn [app]. exists x0. eexists. repeat split; auto.
Qed.

(* the head of an iteration *)
Lemma loop_body_head (go : go_t) acc lb tb ws x tail l m w :
  is_z x = false -> (m_col m = 0 -> doc_ind (x :: tail) = false) -> colq_ok s0 m ->
  loop_body F single start go acc lb tb ws (st (x :: tail) l m w)
  = bind (consume_nonws ops F single acc start) (after_word F single go lb tb ws) (st (x :: tail) (Nat.max l 4) m w).
Proof.
  intros Hz Hdi Hi. unfold loop_body.
  mstep (look_st 4 s0 (x :: tail) l m w).
  mstep (get_st s0 (x :: tail) (Nat.max l 4) m w).
  cbn [sc_mark st_with].
  assert (Edi : (if m_col m =? 0 then next_is_document_indicator ops else ret false) (st (x :: tail) (Nat.max l 4) m w)
                = Ok (false, st (x :: tail) (Nat.max l 4) m w)).
  { destruct (N.eqb_spec (m_col m) 0) as [E|E]; [|reflexivity]. rewrite nidi_st by lia. rewrite (Hdi E). reflexivity. }
  mstep Edi. cbv iota.
  unfold next_is, peek. rewrite bind_assoc. mstep (peekn_st 0 s0 (x :: tail) (Nat.max l 4) m w).
  cbn [nth]. rewrite Hz. rewrite (bind_Ok (ret false) _ _ false _ eq_refl). cbv iota.
  assert (Hlt : col_lt_indent (st (x :: tail) (Nat.max l 4) m w)
                = Ok ((Z.of_N (m_col m) <? sc_indent s0)%Z, st (x :: tail) (Nat.max l 4) m w)) by reflexivity.
  mstep Hlt. replace (Z.of_N (m_col m) <? sc_indent s0)%Z with false by (symmetry; apply Z.ltb_ge; exact Hi).
  reflexivity.
Qed.

Lemma after_word_quote (go : go_t) lb tb ws acc lbl r l m w :
  after_word F single go lb tb ws (acc, lbl) (st (q :: r) l m w) = Ok (acc, st (q :: r) (Nat.max l 1) m w).
Proof.
  cbn [after_word]. unfold look_ch, peek. rewrite bind_assoc.
  mstep (look_st 1 s0 (q :: r) l m w). mstep (peekn_st 0 s0 (q :: r) (Nat.max l 1) m w). cbn [nth].
  destruct single; reflexivity.
Qed.
Lemma after_word_blanks (go : go_t) lb tb ws acc lbl c l m w :
  (single && (nth 0 c 0 =? 39)) || (negb single && (nth 0 c 0 =? 34)) = false ->
  after_word F single go lb tb ws (acc, lbl) (st c l m w)
  = bind (flow_blanks ops F lbl lb tb ws) (after_blanks go acc) (st c (Nat.max l 1) m w).
Proof.
  intros H. cbn [after_word]. unfold look_ch, peek. rewrite bind_assoc.
  mstep (look_st 1 s0 c l m w). mstep (peekn_st 0 s0 c (Nat.max l 1) m w). rewrite H. reflexivity.
Qed.
Lemma not_quote_blank c : is_blank c = true -> (single && (c =? 39)) || (negb single && (c =? 34)) = false.
Proof. intros H. destruct (blank_cases c H) as [->| ->]; destruct single; reflexivity. Qed.

(* one segment *)
Section Seg.
Variable x : N.
Variable tail : list N.
Variable Q : list chr -> marker -> outcome (list chr * sc strin) -> Prop.
Variable B : nat.
Hypothesis Hafter : forall fc f acc l m w, (B <= fc)%nat -> (B <= f)%nat -> colq_ok s0 m ->
  Q acc m (bind (consume_nonws ops fc single acc start) (after_word F single (loop F single start f) false 0 []) (st (x :: tail) l m w)).
Hypothesis Hxz : is_z x = false.

Definition PWq (items : list dq_item) : Prop := forall fc f acc l m w,
  forallb (iwf single) items = true -> (ends_blank false items = true -> plain_head x) ->
  (B + length items <= fc)%nat -> (B + length items <= f)%nat -> (B + length items + 2 <= F)%nat -> colq_ok s0 m ->
  Q (rev (map item_val items) ++ acc) (adv (N.of_nat (length (ssrc single items))) m)
    (bind (consume_nonws ops fc single acc start) (after_word F single (loop F single start f) false 0 [])
          (st (ssrc single items ++ x :: tail) l m w)).

Definition PBq (b : N) (items : list dq_item) : Prop := forall fb f acc ws l m w,
  is_sp b = true -> forallb (iwf single) items = true -> (ends_blank true items = true -> plain_head x) ->
  (length items + 1 < fb)%nat -> (B + length items + 1 <= f)%nat -> (B + length items + 2 <= F)%nat -> colq_ok s0 m ->
  Q (rev (map item_val items) ++ b :: ws ++ acc) (adv (N.of_nat (S (length (ssrc single items)))) m)
    (bind (flow_blanks ops fb false false 0 ws) (after_blanks (loop F single start f) acc)
          (st (b :: ssrc single items ++ x :: tail) l m w)).

Lemma adv_col_ne0 m : m_col (adv 1 m) <> 0.
Proof. rewrite adv_col. lia. Qed.

Lemma PWq_PBq : forall items, PWq items /\ (forall b, PBq b items).
Proof.
  induction items as [|i items [IHW IHB]].
  - split.
    + intros fc f acc l m w _ _ Hfc Hf _ Hm. cbn [ssrc flat_map app length map rev].
      change (N.of_nat 0) with 0. rewrite adv_0. apply Hafter; [lia|lia|exact Hm].
    + intros b fb f acc ws l m w Hb _ Hend Hfb Hf HF Hm.
      destruct (Hend eq_refl) as [Hx1 [Hx2 _]].
      destruct fb as [|[|fb]]; [cbn in Hfb; lia|cbn in Hfb; lia|].
      cbn [ssrc flat_map app length map rev].
      rewrite (bind_congr _ _ _ _ _ (fb_blank_ws s0 (S fb) false 0 ws b (x :: tail) l m w Hb)).
      rewrite (bind_Ok _ _ _ _ _ (fb_stop s0 fb false false 0 (b :: ws) (x :: tail) _ _ w Hx1 Hx2)).
      cbn [after_blanks]. destruct f as [|f]; [cbn in Hf; lia|]. cbn [loop].
      rewrite loop_body_head; [|exact Hxz|intros E; exfalso; exact (adv_col_ne0 m E)|apply colq_ok_adv; exact Hm].
      apply Hafter; [cbn in HF; lia|cbn in Hf; lia|apply colq_ok_adv; exact Hm].
  - assert (W : PWq (i :: items)).
    { intros fc f acc l m w Hwf Hend Hfc Hf HF Hm.
      cbn [forallb] in Hwf. apply andb_prop in Hwf. destruct Hwf as [Hi Hwf].
      rewrite ends_blank_cons in Hend.
      destruct fc as [|fc]; [cbn in Hfc; lia|].
      cbn [ssrc flat_map]. fold (ssrc single items). rewrite <- app_assoc.
      cbn [map rev]. rewrite <- app_assoc. cbn [app].
      rewrite app_length, Nat2N.inj_add, <- adv_adv.
      destruct (is_lit_blank i) eqn:Eb.
      - (* a literal blank: the word is over *)
        destruct (lit_blank_inv single i Hi Eb) as [c [-> [Hc [Hsrc Hval]]]].
        rewrite Hsrc. cbn [item_val app length]. change (N.of_nat 1) with 1.
        rewrite (bind_Ok _ _ _ _ _ (consume_nonws_stop single c _ fc acc start s0 l m w (or_introl Hc))).
        rewrite after_word_blanks by (cbn [nth]; apply not_quote_blank; exact Hc).
        rewrite adv_1_n.
        apply (IHB c F f acc [] _ m w); try assumption; cbn [length] in *; lia.
      - (* an ordinary character or an escape *)
        destruct (item_step i fc acc l m w (ssrc single items ++ x :: tail)
                    (after_word F single (loop F single start f) false 0 []) Hi Eb) as [l' E].
        rewrite E.
        apply (IHW fc f (item_val i :: acc) l' _ false); try assumption; try (cbn [length] in *; lia).
        apply colq_ok_adv. exact Hm. }
    split; [exact W|].
    intros b fb f acc ws l m w Hb Hwf Hend Hfb Hf HF Hm.
    assert (Hwf' := Hwf). cbn [forallb] in Hwf'. apply andb_prop in Hwf'. destruct Hwf' as [Hi Hwf'].
    destruct fb as [|fb]; [cbn in Hfb; lia|].
    rewrite (bind_congr _ _ _ _ _ (fb_blank_ws s0 fb false 0 ws b (ssrc single (i :: items) ++ x :: tail) l m w Hb)).
    destruct (is_lit_blank i) eqn:Eb.
    + (* another blank *)
      destruct (lit_blank_inv single i Hi Eb) as [c [-> [Hc [Hsrc Hval]]]].
      rewrite ends_blank_cons in Hend. cbn [is_lit_blank] in Hend. rewrite Hc in Hend.
      cbn [ssrc flat_map]. fold (ssrc single items). rewrite Hsrc. cbn [app length map rev item_val].
      rewrite <- app_assoc. cbn [app].
      replace (adv (N.of_nat (S (S (length (ssrc single items))))) m)
        with (adv (N.of_nat (S (length (ssrc single items)))) (adv 1 m)) by (rewrite adv_1_n; reflexivity).
      apply (IHB c fb f acc (b :: ws) _ (adv 1 m) w); try assumption; try (cbn [length] in *; lia).
      apply colq_ok_adv. exact Hm.
    + (* the next word starts: a new iteration *)
      destruct (item_first i Hi Eb) as [x0 [r0 [Ex [[Hx1 [Hx2 Hx3]] _]]]].
      assert (Ee : ssrc single (i :: items) ++ x :: tail = x0 :: (r0 ++ ssrc single items ++ x :: tail)).
      { cbn [ssrc flat_map]. fold (ssrc single items). rewrite Ex. cbn [app]. rewrite <- app_assoc. reflexivity. }
      destruct fb as [|fb]; [cbn in Hfb; lia|].
      rewrite Ee.
      rewrite (bind_Ok _ _ _ _ _ (fb_stop s0 fb false false 0 (b :: ws) (x0 :: r0 ++ ssrc single items ++ x :: tail) _ _ w Hx1 Hx2)).
      cbn [after_blanks]. destruct f as [|f]; [cbn in Hf; lia|]. cbn [loop].
      rewrite loop_body_head; [|exact Hx3|intros E; exfalso; exact (adv_col_ne0 m E)|apply colq_ok_adv; exact Hm].
      rewrite <- Ee.
      replace (adv (N.of_nat (S (length (ssrc single (i :: items))))) m)
        with (adv (N.of_nat (length (ssrc single (i :: items)))) (adv 1 m)) by (rewrite adv_1_n; reflexivity).
      replace (rev (map item_val (i :: items)) ++ b :: ws ++ acc)
        with (rev (map item_val (i :: items)) ++ (b :: ws) ++ acc) by reflexivity.
      apply (W F f ((b :: ws) ++ acc) _ (adv 1 m) w); try assumption; try (cbn [length] in *; lia).
      * rewrite ends_blank_cons in Hend |- *. exact Hend.
      * apply colq_ok_adv. exact Hm.
Qed.
End Seg.

(* the separators between segments *)
Lemma consume_nonws_bbz x r fuel acc l m w :
  is_blank_or_breakz x = true ->
  consume_nonws ops (S fuel) single acc start (st (x :: r) l m w) = Ok ((acc, false), st (x :: r) (Nat.max l 2) m w).
Proof.
  intros H. cbn [consume_nonws]. mstep (look_st 2 s0 (x :: r) l m w). unfold peek.
  mstep (peekn_st 0 s0 (x :: r) (Nat.max l 2) m w). cbn [nth]. rewrite H. reflexivity.
Qed.

Lemma skip_linebreak_nl k r l m w : (2 <= l)%nat -> cr_ok k r ->
  skip_linebreak ops (st (nl_src k ++ r) l m w) = Ok (tt, st r l (nl_mark k m) true).
Proof.
  intros Hl Hk. unfold skip_linebreak, next_2_are.
  rewrite !bind_assoc. mstep (assert_buflen_str 2 103 (st (nl_src k ++ r) l m w) Hl). unfold peek. rewrite !bind_assoc.
  mstep (peekn_st 0 s0 (nl_src k ++ r) l m w). rewrite !bind_assoc. mstep (peekn_st 1 s0 (nl_src k ++ r) l m w).
  destruct k; cbn [nl_src app nth].
  - change (10 =? 13) with false. cbn [andb]. rewrite (bind_Ok (ret false) _ _ _ _ eq_refl). cbv iota.
    mstep (peekn_st 0 s0 (10 :: r) l m w). reflexivity.
  - change (13 =? 13) with true. rewrite (Hk eq_refl). cbn [andb]. rewrite (bind_Ok (ret false) _ _ _ _ eq_refl). cbv iota.
    mstep (peekn_st 0 s0 (13 :: r) l m w). reflexivity.
  - reflexivity.
Qed.

(* backslash + break inside double quotes: both are consumed, nothing is appended, "leading blanks" is set *)
Lemma consume_nonws_escbrk k r fuel acc l m w :
  single = false -> cr_ok k r ->
  consume_nonws ops (S fuel) single acc start (st (92 :: nl_src k ++ r) l m w)
  = Ok ((acc, true), st r (Nat.max (Nat.max l 2) 3) (nl_mark k (adv 1 m)) true).
Proof.
  intros Es Hk. rewrite Es. cbn [consume_nonws]. mstep (look_st 2 s0 (92 :: nl_src k ++ r) l m w). unfold peek.
  mstep (peekn_st 0 s0 (92 :: nl_src k ++ r) (Nat.max l 2) m w). cbn [nth].
  change (is_blank_or_breakz 92) with false. cbv iota.
  mstep (peekn_st 1 s0 (92 :: nl_src k ++ r) (Nat.max l 2) m w). cbn [nth].
  change (92 =? 39) with false. change (92 =? 34) with false. change (92 =? 92) with true.
  rewrite (proj2 (nl_head k r)).
  cbn [andb negb]. cbv iota.
  mstep (look_st 3 s0 (92 :: nl_src k ++ r) (Nat.max l 2) m w).
  mstep (skip_non_blank_st s0 (92 :: nl_src k ++ r) (Nat.max (Nat.max l 2) 3) m w). cbn [tl].
  mstep (skip_linebreak_nl k r (Nat.max (Nat.max l 2) 3) (adv 1 m) false ltac:(lia) Hk). reflexivity.
Qed.

(* what stands between / after segments never is NUL, '-' or '.' *)
Definition sep_head (x : N) : Prop := is_z x = false /\ x <> 45 /\ x <> 46.

Lemma src_no_nul i : iwf single i = true -> Forall (fun c => c <> 0) (isrc single i).
Proof.
  intros Hwf. destruct (is_lit_blank i) eqn:Eb.
  - destruct (lit_blank_inv single i Hwf Eb) as [c [-> [Hc [Hsrc _]]]]. rewrite Hsrc. constructor; [|constructor].
    intros ->. discriminate Hc.
  - destruct single eqn:Es; cbn [iwf isrc] in *.
    + destruct i as [c| |]; try discriminate Hwf. cbn [sq_item_wf is_lit_blank] in *. rewrite Eb, orb_false_r in Hwf.
      apply andb_prop in Hwf. destruct Hwf as [H _]. apply N.ltb_lt in H. cbn [sq_src].
      destruct (c =? 39); repeat constructor; lia.
    + pose proof (item_wf_ok i Hwf Eb) as Hok.
      destruct i as [c|e v|e ds v]; cbn [item_ok item_src] in *.
      * constructor; [|constructor]. intros ->. discriminate Hok.
      * constructor; [discriminate|]. constructor; [|constructor]. intros ->. discriminate Hok.
      * destruct Hok as [Hin [Hv _]]. constructor; [discriminate|]. constructor.
        { destruct Hin as [H|[H|[H|[]]]]; inversion H; discriminate. }
        pose proof (hex_value_digits ds v Hv) as Hd. clear -Hd. induction Hd as [|d r Hd _ IH]; constructor; [|exact IH].
        intros ->. discriminate Hd.
Qed.
Lemma ssrc_no_nul seg : forallb (iwf single) seg = true -> Forall (fun c => c <> 0) (ssrc single seg).
Proof.
  induction seg as [|i seg IH]; intros H; [constructor|].
  cbn [forallb] in H. apply andb_prop in H. destruct H as [Hi H]. cbn [ssrc flat_map].
  apply Forall_app. split; [apply src_no_nul; exact Hi|apply IH; exact H].
Qed.

Lemma fold_acc k (go : go_t) acc :
  after_blanks go acc (true, true, N.of_nat k, []) = go (rev (break_text (Folded k)) ++ acc) false 0 [].
Proof.
  cbn [after_blanks negb]. destruct k as [|k]; [reflexivity|].
  replace (N.of_nat (S k) =? 0) with false by (symmetry; apply N.eqb_neq; lia).
  rewrite nls_repeat, Nat2N.id. cbn [break_text]. rewrite rev_repeat. reflexivity.
Qed.
Lemma esc_acc k (go : go_t) acc :
  after_blanks go acc (true, false, N.of_nat k, []) = go (rev (break_text (Escaped k)) ++ acc) false 0 [].
Proof.
  cbn [after_blanks negb]. rewrite nls_repeat, Nat2N.id. cbn [break_text]. rewrite rev_repeat. reflexivity.
Qed.

(* a break and the segment after it *)
Variable n : nat.
Hypothesis Hn : (sc_indent s0 < Z.of_nat n)%Z.

(* from the head of the iteration that starts a segment (marker-aware conclusion) *)
Lemma seg_from_head_m x' tail' (Q : list chr -> marker -> outcome (list chr * sc strin) -> Prop) B
  (Hafter' : forall fc f acc l m w, (B <= fc)%nat -> (B <= f)%nat -> colq_ok s0 m ->
     Q acc m (bind (consume_nonws ops fc single acc start) (after_word F single (loop F single start f) false 0 []) (st (x' :: tail') l m w)))
  (Hsep' : sep_head x') seg f acc l m w :
  forallb (iwf single) seg = true ->
  (m_col m = 0 -> marker_at_col0 [] (ssrc single seg) = false) ->
  (ends_blank false seg = true -> plain_head x') ->
  (B + length seg + 1 <= f)%nat -> (B + length seg + 2 <= F)%nat -> colq_ok s0 m ->
  Q (rev (map item_val seg) ++ acc) (adv (N.of_nat (length (ssrc single seg))) m)
    (loop F single start f acc false 0 [] (st (ssrc single seg ++ x' :: tail') l m w)).
Proof.
  intros Hwf Hmk Hend Hf HF Hm.
  destruct f as [|f]; [lia|]. cbn [loop].
  assert (Hhead : exists y r, ssrc single seg ++ x' :: tail' = y :: r /\ is_z y = false).
  { pose proof (ssrc_no_nul seg Hwf) as Hnz.
    destruct (ssrc single seg) as [|y r]; [exists x', tail'; split; [reflexivity|exact (proj1 Hsep')]|].
    exists y, (r ++ x' :: tail'). split; [reflexivity|]. inversion Hnz as [|? ? Hy _]; subst. apply N.eqb_neq. exact Hy. }
  destruct Hhead as [y [r [Ey Hy]]]. rewrite Ey.
  rewrite loop_body_head; [|exact Hy| |exact Hm].
  2:{ intros E. rewrite <- Ey. destruct Hsep' as [_ [H45 H46]]. apply no_marker_doc_ind; [apply ssrc_no_nul; exact Hwf|exact (Hmk E)|exact H45|exact H46]. }
  rewrite <- Ey.
  destruct (PWq_PBq x' tail' Q B Hafter' (proj1 Hsep') seg) as [W _].
  apply (W F f acc _ m w); try assumption; lia.
Qed.

Section Step.
Variable x' : N.
Variable tail' : list N.
Variable Q' : list chr -> outcome (list chr * sc strin) -> Prop.
Variable B : nat.
Hypothesis Hafter' : forall fc f acc l m w, (B <= fc)%nat -> (B <= f)%nat -> colq_ok s0 m ->
  Q' acc (bind (consume_nonws ops fc single acc start) (after_word F single (loop F single start f) false 0 []) (st (x' :: tail') l m w)).
Hypothesis Hsep' : sep_head x'.

(* from the head of the iteration that starts the segment *)
Lemma seg_from_head seg f acc l m w :
  forallb (iwf single) seg = true -> first_is_lit_blank seg = false ->
  (m_col m = 0 -> marker_at_col0 [] (ssrc single seg) = false) ->
  (ends_blank false seg = true -> plain_head x') ->
  (B + length seg + 1 <= f)%nat -> (B + length seg + 2 <= F)%nat -> colq_ok s0 m ->
  Q' (rev (map item_val seg) ++ acc) (loop F single start f acc false 0 [] (st (ssrc single seg ++ x' :: tail') l m w)).
Proof.
  intros Hwf _ Hmk Hend Hf HF Hm.
  exact (seg_from_head_m x' tail' (fun a _ o => Q' a o) B Hafter' Hsep' seg f acc l m w Hwf Hmk Hend Hf HF Hm).
Qed.

Lemma seg_step_folded b seg fc f acc l m w :
  brk_wf n b = true -> bl_escaped b = false ->
  forallb (iwf single) seg = true -> first_is_lit_blank seg = false ->
  marker_at_col0 (bl_indent b) (ssrc single seg) = false ->
  (ends_blank false seg = true -> plain_head x') -> (seg = [] -> plain_head x') ->
  (1 <= fc)%nat -> (B + length seg + 2 <= f)%nat -> (B + length seg + length (render_brk b) + 2 <= F)%nat -> colq_ok s0 m ->
  Q' (rev (map item_val seg) ++ rev (break_text (brk_of b)) ++ acc)
     (bind (consume_nonws ops fc single acc start) (after_word F single (loop F single start f) false 0 [])
           (st (render_brk b ++ ssrc single seg ++ x' :: tail') l m w)).
Proof.
  intros Hb He Hwf Hfirst Hmk Hend Hnil Hfc Hf HF Hm.
  pose proof (proj1 (brk_wf_parts n b Hb)) as Hpad.
  (* the first character of the break: a blank of the padding or the line feed *)
  assert (Hy : exists y r, render_brk b ++ ssrc single seg ++ x' :: tail' = y :: r /\ is_blank_or_breakz y = true
                           /\ (single && (y =? 39)) || (negb single && (y =? 34)) = false).
  { unfold render_brk. rewrite He. destruct (bl_pad b) as [|p ps].
    - cbn [app]. destruct (bl_nl b); cbn [nl_src app]; eexists; eexists; (split; [reflexivity|]); (split; [reflexivity|]); destruct single; reflexivity.
    - cbn [forallb] in Hpad. apply andb_prop in Hpad. destruct Hpad as [Hp _]. cbn [app].
      eexists; eexists. split; [reflexivity|]. split; [unfold is_blank_or_breakz; rewrite is_blank_sp, Hp; reflexivity|].
      apply not_quote_blank. exact Hp. }
  destruct Hy as [y [r [Ey [Hy1 Hy2]]]].
  destruct fc as [|fc]; [lia|].
  rewrite Ey. rewrite (bind_Ok _ _ _ _ _ (consume_nonws_bbz y r fc acc l m w Hy1)).
  rewrite after_word_blanks by (cbn [nth]; exact Hy2).
  rewrite <- Ey.
  (* the first character after the break *)
  destruct (seg_head seg x' tail' Hwf Hfirst Hnil) as [x1 [r1 [Ex1 [Hb1 [Hk1 _]]]]]. rewrite Ex1.
  pose proof (brk_cost_le b) as Hcost.
  destruct (fb_brk s0 n Hn b (F - brk_cost b - 1) x1 r1 (Nat.max (Nat.max l 2) 1) m w Hb He Hb1 Hk1) as [l' [m' [w' [Hcol [Hm' E]]]]].
  replace (brk_cost b + S (F - brk_cost b - 1))%nat with F in E by lia.
  rewrite (bind_Ok _ _ _ _ _ E). rewrite fold_acc. rewrite <- Ex1.
  unfold brk_of. rewrite He.
  apply seg_from_head; try assumption; try lia.
  intros Hz. rewrite Hz in Hcol.
  assert (Hi : bl_indent b = []) by (destruct (bl_indent b); [reflexivity|cbn [length] in Hcol; lia]).
  rewrite Hi in Hmk. exact Hmk.
Qed.

Lemma seg_step_escaped b seg fc f acc l m w :
  single = false ->
  brk_wf n b = true -> bl_escaped b = true ->
  forallb (iwf single) seg = true -> first_is_lit_blank seg = false ->
  marker_at_col0 (bl_indent b) (ssrc single seg) = false ->
  (ends_blank false seg = true -> plain_head x') ->
  (seg = [] -> x' = q /\ forall acc l m w, Q' acc (Ok (acc, st (x' :: tail') l m w))) ->
  (1 <= fc)%nat -> (B + length seg + 2 <= f)%nat -> (B + length seg + length (render_brk b) + 2 <= F)%nat -> colq_ok s0 m ->
  Q' (rev (map item_val seg) ++ rev (break_text (brk_of b)) ++ acc)
     (bind (consume_nonws ops fc single acc start) (after_word F single (loop F single start f) false 0 [])
           (st (render_brk b ++ ssrc single seg ++ x' :: tail') l m w)).
Proof.
  intros Es Hb He Hwf Hfirst Hmk Hend HQ Hfc Hf HF Hm.
  destruct (brk_wf_parts n b Hb) as [_ [Hpad [Hes Hind]]]. specialize (Hpad He).
  set (E := flat_map (fun e => e ++ nl_src (bl_nl b)) (bl_empties b)) in *.
  assert (Hlen : (ecost (bl_empties b) + length (bl_indent b) + 2 <= length (render_brk b))%nat).
  { unfold render_brk. rewrite He, Hpad. cbn [app length]. rewrite !app_length.
    pose proof (nl_src_len (bl_nl b)). pose proof (ecost_le (bl_nl b) (bl_empties b)). lia. }
  assert (Hsrc : render_brk b ++ ssrc single seg ++ x' :: tail' = 92 :: nl_src (bl_nl b) ++ (E ++ bl_indent b) ++ ssrc single seg ++ x' :: tail').
  { unfold render_brk. rewrite He, Hpad. cbn [app]. rewrite <- !app_assoc. reflexivity. }
  rewrite Hsrc. clear Hsrc.
  destruct fc as [|fc]; [lia|].
  unfold brk_of. rewrite He.
  (* the first character of the next segment (or, if it is empty, of what follows) *)
  destruct (seg_head seg x' tail' Hwf Hfirst) as [x1 [r1 [Ex1 [Hb1 [Hk1 H34]]]]].
  { intros Hs. rewrite (proj1 (HQ Hs)). apply quote_plain_head. }
  assert (Hcr : cr_ok (bl_nl b) ((E ++ bl_indent b) ++ ssrc single seg ++ x' :: tail')).
  { rewrite <- app_assoc. rewrite Ex1. subst E. apply cr_ok_flat; [apply (empties_blank_q s0 n Hn); exact Hes|].
    apply cr_ok_blanks; [|exact Hk1]. unfold indent_wf in Hind. apply andb_prop in Hind. tauto. }
  rewrite (bind_Ok _ _ _ _ _ (consume_nonws_escbrk (bl_nl b) _ fc acc l m w Es Hcr)).
  (* is the very next character the closing quote? *)
  assert (Hcase : (E ++ bl_indent b = [] /\ seg = [])
                  \/ (single && (nth 0 ((E ++ bl_indent b) ++ ssrc single seg ++ x' :: tail') 0 =? 39))
                      || (negb single && (nth 0 ((E ++ bl_indent b) ++ ssrc single seg ++ x' :: tail') 0 =? 34)) = false).
  { rewrite Es. cbn [andb negb orb].
    destruct (bl_empties b) as [|e es] eqn:Ees.
    - subst E. cbn [flat_map app]. destruct (bl_indent b) as [|c cs] eqn:Eind.
      + cbn [app]. destruct seg as [|i seg'] eqn:Eseg; [left; split; reflexivity|].
        right. rewrite Es in Ex1. rewrite Ex1. cbn [nth]. apply N.eqb_neq. apply H34; [discriminate|exact Es].
      + right. cbn [app nth]. unfold indent_wf in Hind. apply andb_prop in Hind. destruct Hind as [Hsp _].
        cbn [forallb] in Hsp. apply andb_prop in Hsp. destruct Hsp as [Hc _].
        destruct (blank_cases c Hc) as [->| ->]; reflexivity.
    - right. subst E. cbn [flat_map]. cbn [forallb] in Hes. apply andb_prop in Hes. destruct Hes as [He1 _].
      destruct e as [|c e'].
      + cbn [app]. destruct (bl_nl b); reflexivity.
      + cbn [app nth].
        assert (Hc : is_sp c = true).
        { unfold empty_wf, indent_wf in He1. apply orb_prop in He1. destruct He1 as [H1|H1]; apply andb_prop in H1; destruct H1 as [H1 _];
            cbn [forallb] in H1; apply andb_prop in H1; destruct H1 as [H1 _]; [exact H1|].
          apply N.eqb_eq in H1. subst c. reflexivity. }
        destruct (blank_cases c Hc) as [->| ->]; reflexivity. }
  destruct Hcase as [[Hnil Hseg]|Hnq].
  - (* an escaped break right before the closing quote *)
    destruct (HQ Hseg) as [Hq HQ']. rewrite Hnil, Hseg. cbn [app ssrc flat_map map rev].
    assert (Hk : bl_empties b = []).
    { subst E. destruct (bl_empties b) as [|e es]; [reflexivity|]. cbn [flat_map] in Hnil.
      apply (f_equal (@length N)) in Hnil. rewrite !app_length in Hnil. pose proof (nl_src_len (bl_nl b)). cbn [length] in Hnil. lia. }
    rewrite Hk. cbn [length break_text repeat rev app].
    rewrite Hq. rewrite after_word_quote. rewrite <- Hq. apply HQ'.
  - rewrite after_word_blanks by exact Hnq.
    rewrite <- app_assoc. rewrite Ex1.
    destruct (fb_brk_lines s0 n Hn b (F - (ecost (bl_empties b) + length (bl_indent b)) - 1) false x1 r1
                (Nat.max (Nat.max (Nat.max l 2) 3) 1) (nl_mark (bl_nl b) (adv 1 m)) true Hb Hb1 Hk1 (nl_mark_col _ _)) as [l' [m' [w' [Hcol [Hm' Eb]]]]].
    fold E in Eb.
    replace (ecost (bl_empties b) + length (bl_indent b) + S (F - (ecost (bl_empties b) + length (bl_indent b)) - 1))%nat with F in Eb by lia.
    rewrite (bind_Ok _ _ _ _ _ Eb). rewrite esc_acc. rewrite <- Ex1.
    apply seg_from_head; try assumption; try lia.
    intros Hz. rewrite Hz in Hcol.
    assert (Hi : bl_indent b = []) by (destruct (bl_indent b); [reflexivity|cbn [length] in Hcol; lia]).
    rewrite Hi in Hmk. exact Hmk.
Qed.
End Step.

(* all the segments after the first *)
Variable rest : list N.
Hypothesis Hclose : single = true -> (nth 0 rest 0 =? 39) = false.

Definition rest_src (more : list (brk_layout * list dq_item)) : list N :=
  flat_map (fun p => render_brk (fst p) ++ ssrc single (snd p)) more.
Fixpoint qrest_text (more : list (brk_layout * list dq_item)) : list N :=
  match more with [] => [] | (b, seg) :: r => break_text (brk_of b) ++ map item_val seg ++ qrest_text r end.

Definition Qfin (more : list (brk_layout * list dq_item)) (acc : list chr) (o : outcome (list chr * sc strin)) : Prop :=
  exists l w m', o = Ok (rev (qrest_text more) ++ acc, st (q :: rest) l m' w).

Lemma at_quote fc f acc l m w : (1 <= fc)%nat ->
  bind (consume_nonws ops fc single acc start) (after_word F single (loop F single start f) false 0 []) (st (q :: rest) l m w)
  = Ok (acc, st (q :: rest) (Nat.max (Nat.max l 2) 1) m w).
Proof.
  intros Hfc. destruct fc as [|fc]; [lia|].
  assert (Hs : stops single q rest) by (right; split; [reflexivity|exact Hclose]).
  rewrite (bind_Ok _ _ _ _ _ (consume_nonws_stop single q rest fc acc start s0 l m w Hs)).
  apply after_word_quote.
Qed.

Lemma sep_head_quote : sep_head q /\ plain_head q.
Proof. destruct single; repeat split; discriminate. Qed.

Lemma segs_run : forall more prev,
  seg_rest_wf (iwf single) (isrc single) n prev more = true ->
  (single = true -> forallb (fun p => negb (bl_escaped (fst p))) more = true) ->
  (exists x tail, rest_src more ++ q :: rest = x :: tail /\ sep_head x /\ (last_is_lit_blank prev = true -> plain_head x)) /\
  (forall fc f acc l m w,
     (1 <= fc)%nat -> (length (rest_src more) + length more + 2 <= f)%nat -> (length (rest_src more) + length more + 4 <= F)%nat ->
     colq_ok s0 m ->
     Qfin more acc (bind (consume_nonws ops fc single acc start) (after_word F single (loop F single start f) false 0 [])
                         (st (rest_src more ++ q :: rest) l m w))).
Proof.
  induction more as [|[b seg] more IH]; intros prev Hwf Hsq.
  - split.
    + exists q, rest. split; [reflexivity|]. destruct sep_head_quote as [H1 H2]. split; [exact H1|intros _; exact H2].
    + intros fc f acc l m w Hfc _ _ _. cbn [rest_src flat_map app]. rewrite at_quote by exact Hfc.
      eexists; eexists; eexists. reflexivity.
  - cbn [seg_rest_wf] in Hwf.
    apply andb_prop in Hwf. destruct Hwf as [Hwf Hrest].
    apply andb_prop in Hwf. destruct Hwf as [Hwf Hinner].
    apply andb_prop in Hwf. destruct Hwf as [Hwf Hmk]. apply negb_true_iff in Hmk.
    apply andb_prop in Hwf. destruct Hwf as [Hwf Hfirst]. apply negb_true_iff in Hfirst.
    apply andb_prop in Hwf. destruct Hwf as [Hwf Hprev].
    apply andb_prop in Hwf. destruct Hwf as [Hb Hitems].
    assert (Hsq' : single = true -> forallb (fun p => negb (bl_escaped (fst p))) more = true).
    { intros E. specialize (Hsq E). cbn [forallb] in Hsq. apply andb_prop in Hsq. tauto. }
    destruct (IH seg Hrest Hsq') as [[x' [tail' [Eafter [Hsep' Hend']]]] Hrun]. clear IH.
    assert (Esrc : rest_src ((b, seg) :: more) ++ q :: rest = render_brk b ++ ssrc single seg ++ x' :: tail').
    { cbn [rest_src flat_map fst snd]. fold (rest_src more). rewrite <- !app_assoc. rewrite Eafter. reflexivity. }
    destruct (brk_wf_parts n b Hb) as [Hpad [Hp0 _]].
    split.
    + (* the first character of the break *)
      rewrite Esrc. unfold render_brk. destruct (bl_escaped b) eqn:He.
      * rewrite (Hp0 eq_refl). cbn [app]. eexists; eexists. split; [reflexivity|]. split; [repeat split; discriminate|].
        intros _. repeat split.
      * cbn [orb] in Hprev. apply negb_true_iff in Hprev.
        destruct (bl_pad b) as [|p ps].
        -- cbn [app]. destruct (bl_nl b); cbn [nl_src app]; eexists; eexists; (split; [reflexivity|]);
             (split; [repeat split; discriminate|]); intros E; congruence.
        -- cbn [forallb] in Hpad. apply andb_prop in Hpad. destruct Hpad as [Hp _]. cbn [app].
           eexists; eexists. split; [reflexivity|]. split; [|intros E; congruence].
           destruct (blank_cases p Hp) as [->| ->]; repeat split; discriminate.
    + intros fc f acc l m w Hfc Hf HF Hm. rewrite Esrc.
      assert (Hlen : length (rest_src ((b, seg) :: more)) = (length (render_brk b) + length (ssrc single seg) + length (rest_src more))%nat).
      { cbn [rest_src flat_map fst snd]. fold (rest_src more). rewrite !app_length. lia. }
      pose proof (ssrc_len single seg) as Hsl.
      pose proof (render_brk_len b) as Hbl.
      cbn [length] in Hf, HF.
      assert (Hgoal : forall o, Qfin more (rev (map item_val seg) ++ rev (break_text (brk_of b)) ++ acc) o -> Qfin ((b, seg) :: more) acc o).
      { intros o [l1 [w1 [m1 E]]]. exists l1, w1, m1. rewrite E. cbn [qrest_text]. rewrite !rev_app_distr, <- !app_assoc. reflexivity. }
      apply Hgoal.
      assert (Hlast : seg = [] -> more = []).
      { intros ->. destruct more; [reflexivity|discriminate Hinner]. }
      destruct (bl_escaped b) eqn:He.
      * assert (Es : single = false).
        { destruct single; [|reflexivity]. specialize (Hsq eq_refl). cbn [forallb fst] in Hsq. rewrite He in Hsq. discriminate Hsq. }
        apply (seg_step_escaped x' tail' (Qfin more) (length (rest_src more) + length more + 2)%nat); try assumption; try lia.
        -- intros fc' f' acc' l' m' w' H1 H2 H3. rewrite <- Eafter. apply Hrun; try assumption; lia.
        -- intros Hs. rewrite (Hlast Hs) in *. cbn [rest_src flat_map app] in Eafter. inversion Eafter; subst.
           split; [reflexivity|]. intros acc' l' m' w'. eexists; eexists; eexists. reflexivity.
      * apply (seg_step_folded x' tail' (Qfin more) (length (rest_src more) + length more + 2)%nat); try assumption; try lia.
        -- intros fc' f' acc' l' m' w' H1 H2 H3. rewrite <- Eafter. apply Hrun; try assumption; lia.
        -- intros Hs. rewrite (Hlast Hs) in *. cbn [rest_src flat_map app] in Eafter. inversion Eafter; subst.
           exact (proj2 sep_head_quote).
Qed.
End QLoop.

(* after the closing quote *)
(* what may follow a quoted scalar: blanks, then end of line / input, a comment (after a blank), in a flow
   collection one of , ] } and a colon (a key: in block context only when the scalar is on one line) *)
Definition quoted_follower_ok (flow multi : bool) (rest : list N) : bool :=
  let r := drop_leading rest in
  let c := hd 0 r in
  is_breakz c || (flow && ((c =? 44) || (c =? 93) || (c =? 125))) || ((c =? 58) && (flow || negb multi))
  || ((c =? 35) && negb (Nat.eqb (length r) (length rest))).

Section Finish.
Variable s0 : sc strin.
Notation ops := str_ops.
Notation st := (st_with s0).

Lemma in_skip_st c l m w : in_skip ops (st c l m w) = Ok (tt, st (tl c) l m w).
Proof. reflexivity. Qed.
Lemma look_ch_st c l m w : look_ch ops (st c l m w) = Ok (nth 0 c 0, st c (Nat.max l 1) m w).
Proof. reflexivity. Qed.

Lemma ws_blank fuel tab ws k b r l m w :
  is_sp b = true ->
  in_skip_ws_to_eol ops (S fuel) SkipYes tab ws k (st (b :: r) l m w)
  = in_skip_ws_to_eol ops fuel SkipYes (tab || (b =? 9)) (ws || (b =? 32)) (k + 1) (st r (Nat.max l 1) m w).
Proof.
  intros Hb. cbn [in_skip_ws_to_eol]. unfold look_ch, peek. rewrite bind_assoc.
  mstep (look_st 1 s0 (b :: r) l m w). mstep (peekn_st 0 s0 (b :: r) (Nat.max l 1) m w). cbn [nth].
  destruct (blank_cases b Hb) as [->| ->].
  - change (32 =? 32) with true. cbv iota. mstep (in_skip_st (32 :: r) (Nat.max l 1) m w).
    change (32 =? 9) with false. rewrite orb_false_r, orb_true_r. reflexivity.
  - change (9 =? 32) with false. change (9 =? 9) with true. cbn [andb]. cbv iota.
    mstep (in_skip_st (9 :: r) (Nat.max l 1) m w). rewrite orb_false_r, orb_true_r. reflexivity.
Qed.

Definition has (c : N) (bs : list N) : bool := existsb (N.eqb c) bs.
Lemma ws_blanks : forall bs fuel tab ws k r l m w,
  forallb is_sp bs = true ->
  exists l',
    in_skip_ws_to_eol ops (length bs + fuel) SkipYes tab ws k (st (bs ++ r) l m w)
    = in_skip_ws_to_eol ops fuel SkipYes (tab || has 9 bs) (ws || has 32 bs) (k + N.of_nat (length bs)) (st r l' m w).
Proof.
  induction bs as [|b bs IH]; intros fuel tab ws k r l m w H.
  - exists l. cbn [length app Nat.add has existsb]. change (N.of_nat 0) with 0. rewrite N.add_0_r, !orb_false_r. reflexivity.
  - cbn [forallb] in H. apply andb_prop in H. destruct H as [Hb H].
    destruct (IH fuel (tab || (b =? 9)) (ws || (b =? 32)) (k + 1) r (Nat.max l 1) m w H) as [l' E].
    exists l'. cbn [length app Nat.add]. rewrite ws_blank by exact Hb. rewrite E.
    unfold has. cbn [existsb]. rewrite (N.eqb_sym 9 b), (N.eqb_sym 32 b), !orb_assoc. f_equal. lia.
Qed.
Lemma blanks_flag bs tab ws : forallb is_sp bs = true -> bs <> [] -> negb (tab || has 9 bs) && negb (ws || has 32 bs) = false.
Proof.
  intros H Hne. destruct bs as [|b bs]; [contradiction|]. cbn [forallb] in H. apply andb_prop in H. destruct H as [Hb _].
  unfold has. cbn [existsb]. destruct (blank_cases b Hb) as [->| ->].
  - change (32 =? 32) with true. rewrite !orb_true_r. cbn [negb]. apply andb_false_r.
  - change (9 =? 9) with true. rewrite !orb_true_r. reflexivity.
Qed.

Lemma ws_stop fuel tab ws k c l m w :
  (nth 0 c 0 =? 32) = false -> (nth 0 c 0 =? 9) = false -> (nth 0 c 0 =? 35) = false ->
  in_skip_ws_to_eol ops (S fuel) SkipYes tab ws k (st c l m w) = Ok ((k, Some (tab, ws)), st c (Nat.max l 1) m w).
Proof.
  intros H1 H2 H3. cbn [in_skip_ws_to_eol]. unfold look_ch, peek. rewrite bind_assoc.
  mstep (look_st 1 s0 c l m w). mstep (peekn_st 0 s0 c (Nat.max l 1) m w). rewrite H1, H2, H3. reflexivity.
Qed.

(* a comment: '#', characters up to the end of the line *)
Lemma comment_loop fuel tab ws : forall cs f k z l m w,
  (1 <= fuel)%nat -> (length cs < f)%nat ->
  forallb (fun c => negb (is_breakz c)) cs = true -> is_breakz (nth 0 z 0) = true ->
  exists l',
    (fix comment (f : nat) (k : N) : @M strin (N * option (bool * bool)) :=
       match f with
       | O => oof
       | S f => c <- look_ch ops ;; if is_breakz c then in_skip_ws_to_eol ops fuel SkipYes tab ws (k + 1)
                                    else in_skip ops ;;; comment f (k + 1)
       end) f k (st (cs ++ z) l m w)
    = Ok ((k + N.of_nat (length cs) + 1, Some (tab, ws)), st z l' m w).
Proof.
  induction cs as [|c cs IH]; intros f k z l m w Hfuel Hf Hcs Hz.
  - destruct f as [|f]; [cbn in Hf; lia|]. cbn [app length].
    mstep (look_ch_st z l m w).
    rewrite Hz. destruct fuel as [|fuel']; [lia|].
    assert (Hz' : (nth 0 z 0 =? 32) = false /\ (nth 0 z 0 =? 9) = false /\ (nth 0 z 0 =? 35) = false).
    { destruct (breakz_cases _ Hz) as [E|[E|E]]; rewrite E; repeat split. }
    destruct Hz' as [H1 [H2 H3]]. rewrite ws_stop by assumption. exists (Nat.max (Nat.max l 1) 1).
    change (N.of_nat 0) with 0. rewrite N.add_0_r. reflexivity.
  - destruct f as [|f]; [cbn in Hf; lia|].
    cbn [forallb] in Hcs. apply andb_prop in Hcs. destruct Hcs as [Hc Hcs]. apply negb_true_iff in Hc.
    cbn [app length].
    mstep (look_ch_st (c :: cs ++ z) l m w). cbn [nth]. rewrite Hc.
    mstep (in_skip_st (c :: cs ++ z) (Nat.max l 1) m w). cbn [tl].
    destruct (IH f (k + 1) z (Nat.max l 1) m w Hfuel ltac:(cbn in Hf; lia) Hcs Hz) as [l' E].
    exists l'. rewrite E. do 2 f_equal. f_equal. lia.
Qed.

Lemma ws_comment cs fuel tab ws k z l m w :
  negb tab && negb ws = false -> forallb (fun c => negb (is_breakz c)) cs = true -> is_breakz (nth 0 z 0) = true ->
  (length cs < fuel)%nat ->
  exists l', in_skip_ws_to_eol ops (S fuel) SkipYes tab ws k (st (35 :: cs ++ z) l m w)
             = Ok ((k + N.of_nat (length cs) + 1, Some (tab, ws)), st z l' m w).
Proof.
  intros Hflag Hcs Hz Hfuel.
  cbn [in_skip_ws_to_eol]. mstep (look_ch_st (35 :: cs ++ z) l m w). cbn [nth].
  change (35 =? 32) with false. change (35 =? 9) with false. change (35 =? 35) with true. cbn [andb]. cbv iota.
  rewrite Hflag. mstep (in_skip_st (35 :: cs ++ z) (Nat.max l 1) m w). cbn [tl].
  apply comment_loop; try assumption. lia.
Qed.

Fixpoint take_nb (l : list N) : list N :=
  match l with c :: r => if is_breakz c then [] else c :: take_nb r | [] => [] end.
Fixpoint drop_nb (l : list N) : list N :=
  match l with c :: r => if is_breakz c then l else drop_nb r | [] => [] end.
Lemma split_nb l : l = take_nb l ++ drop_nb l /\ forallb (fun c => negb (is_breakz c)) (take_nb l) = true
                   /\ is_breakz (nth 0 (drop_nb l) 0) = true.
Proof.
  induction l as [|c l [IH1 [IH2 IH3]]]; [repeat split|].
  cbn [take_nb drop_nb]. destruct (is_breakz c) eqn:E.
  - repeat split. exact E.
  - cbn [app forallb]. rewrite E. repeat split; [f_equal; exact IH1|exact IH2|exact IH3].
Qed.

Lemma adv_line k m : m_line (adv k m) = m_line m.
Proof. reflexivity. Qed.

Lemma finish_run F single start str rest l m w multi :
  quoted_follower_ok (0 <? sc_flow_level s0) multi rest = true ->
  (multi = false -> m_line m = m_line start) ->
  (length rest + 2 <= F)%nat ->
  exists sp s',
    finish_flow_scalar F single start str (st (quote_of single :: rest) l m w)
    = Ok ((sp, TScalar (style_of single) (rev str)), s') /\ sp_start sp = start.
Proof.
  intros Hfol Hline HF. unfold finish_flow_scalar.
  mstep (skip_non_blank_st s0 (quote_of single :: rest) l m w). cbn [tl].
  unfold skip_ws_to_eol. rewrite bind_assoc.
  destruct (split_leading rest) as [Hsplit [Hbs Hhd]].
  set (bs := take_leading rest) in *. set (r := drop_leading rest) in *.
  assert (Hlen : length rest = (length bs + length r)%nat) by (rewrite Hsplit at 1; apply app_length).
  unfold quoted_follower_ok in Hfol. fold r in Hfol.
  (* what the blank / comment skipper returns *)
  assert (Hskip : exists k tab ws l' z,
             in_skip_ws_to_eol ops F SkipYes false false 0 (st rest l (adv 1 m) false) = Ok ((k, Some (tab, ws)), st z l' (adv 1 m) false)
             /\ ((nth 0 z 0 = hd 0 r /\ (hd 0 r =? 35) = false) \/ is_breakz (nth 0 z 0) = true)).
  { rewrite Hsplit.
    destruct (N.eqb_spec (hd 0 r) 35) as [E35|E35].
    - (* a comment *)
      assert (Hne : bs <> []).
      { intros E. rewrite E35 in Hfol. change (is_breakz 35) with false in Hfol. change (35 =? 44) with false in Hfol.
        change (35 =? 93) with false in Hfol. change (35 =? 125) with false in Hfol. change (35 =? 58) with false in Hfol.
        rewrite !andb_false_r in Hfol. cbn [orb andb] in Hfol. apply negb_true_iff in Hfol. apply Nat.eqb_neq in Hfol.
        rewrite E in Hlen. cbn [length] in Hlen. lia. }
      destruct r as [|c r'] eqn:Er; [discriminate E35|]. cbn [hd] in E35. subst c.
      destruct (split_nb r') as [Hs2 [Hcs Hz]].
      destruct (ws_blanks bs (F - length bs) false false 0 (35 :: r') l (adv 1 m) false Hbs) as [l1 E1].
      replace (length bs + (F - length bs))%nat with F in E1 by (cbn [length] in Hlen; lia).
      assert (Hlen2 : length r' = (length (take_nb r') + length (drop_nb r'))%nat) by (rewrite Hs2 at 1; apply app_length).
      destruct (ws_comment (take_nb r') (F - length bs - 1) (false || has 9 bs) (false || has 32 bs) (0 + N.of_nat (length bs))
                  (drop_nb r') l1 (adv 1 m) false (blanks_flag bs false false Hbs Hne) Hcs Hz ltac:(cbn [length] in Hlen; lia)) as [l2 E2].
      replace (S (F - length bs - 1)) with (F - length bs)%nat in E2 by (cbn [length] in Hlen; lia).
      rewrite <- Hs2 in E2.
      eexists; eexists; eexists; eexists; eexists. split; [rewrite E1; exact E2|]. right. exact Hz.
    - (* no comment *)
      destruct (ws_blanks bs (F - length bs) false false 0 r l (adv 1 m) false Hbs) as [l1 E1].
      replace (length bs + (F - length bs))%nat with F in E1 by lia.
      assert (H329 : (nth 0 r 0 =? 32) = false /\ (nth 0 r 0 =? 9) = false).
      { rewrite <- hd_nth. destruct r as [|c r']; [split; reflexivity|]. cbn [hd] in *.
        unfold is_sp in Hhd. apply orb_false_elim in Hhd. exact Hhd. }
      destruct H329 as [H32 H9].
      replace (F - length bs)%nat with (S (F - length bs - 1)) in E1 by lia.
      rewrite ws_stop in E1; [|exact H32|exact H9|rewrite <- hd_nth; apply N.eqb_neq; exact E35].
      eexists; eexists; eexists; eexists; eexists. split; [exact E1|]. left. split; [symmetry; apply hd_nth|reflexivity]. }
  destruct Hskip as [k [tab [ws [l' [z [E Hz]]]]]].
  mstep E. cbn [fst snd]. rewrite bind_assoc.
  assert (E2 : adv_mark k (st z l' (adv 1 m) false) = Ok (tt, st z l' (adv k (adv 1 m)) false)) by reflexivity.
  mstep E2. rewrite (bind_Ok (ret (tab, ws)) _ _ _ _ eq_refl).
  unfold peek. mstep (peekn_st 0 s0 z l' (adv k (adv 1 m)) false).
  mstep (get_st s0 z l' (adv k (adv 1 m)) false).
  cbn [sc_flow_level sc_mark st_with].
  match goal with |- context [if ?c then _ else _] => assert (Hacc : c = true) end.
  { destruct Hz as [[Hz H35]|Hz]; [|rewrite Hz; rewrite orb_true_r; reflexivity].
    rewrite Hz. rewrite H35 in Hfol. rewrite andb_false_l, orb_false_r in Hfol.
    apply orb_prop in Hfol. destruct Hfol as [Hfol|Hfol]; [apply orb_prop in Hfol; destruct Hfol as [Hfol|Hfol]|].
    - rewrite Hfol. rewrite orb_true_r. reflexivity.
    - apply andb_prop in Hfol. destruct Hfol as [Hf Hc]. rewrite Hf. rewrite andb_true_r.
      replace ((hd 0 r =? 44) || (hd 0 r =? 125) || (hd 0 r =? 93)) with true; [reflexivity|].
      symmetry. destruct (hd 0 r =? 44), (hd 0 r =? 93), (hd 0 r =? 125); try reflexivity; discriminate Hc.
    - apply andb_prop in Hfol. destruct Hfol as [Hc Hfm]. rewrite Hc. cbn [andb].
      destruct (0 <? sc_flow_level s0) eqn:Efl; [rewrite !orb_true_r; reflexivity|].
      cbn [orb negb] in Hfm. apply negb_true_iff in Hfm. cbn [negb andb].
      rewrite !adv_line. rewrite (Hline Hfm). rewrite N.eqb_refl. rewrite !orb_true_r. reflexivity. }
  rewrite Hacc. eexists; eexists. split; [destruct single; reflexivity|reflexivity].
Qed.
End Finish.

(* the theorem *)
Lemma dq_text_rest first more : dq_text first more = map item_val first ++ qrest_text more.
Proof.
  unfold dq_text. generalize (map item_val first) as t. induction more as [|[b seg] more IH]; intros t; [cbn; rewrite app_nil_r; reflexivity|].
  cbn [map fold_lines qrest_text fst snd]. rewrite IH. reflexivity.
Qed.

Definition C04_quoted_full : Prop :=
  forall (F : nat) (single : bool) (n : nat) (first : list dq_item) (more : list (brk_layout * list dq_item))
         (rest : list N) (s : sc strin),
    (if single then sq_layout_wf n first more else dq_layout_wf n first more) = true ->
    let src := if single then sq_render first more else dq_render first more in
    si_chars (sc_in s) = quote_of single :: src ++ quote_of single :: rest ->
    (single = true -> (nth 0 rest 0 =? 39) = false) ->
    quoted_follower_ok (0 <? sc_flow_level s) (match more with [] => false | _ => true end) rest = true ->
    (sc_indent s < Z.of_nat n)%Z ->                               (* continuation lines are indented deeper than the block *)
    (sc_indent s <= Z.of_N (m_col (sc_mark s)) + 1)%Z ->
    (2 * length (si_chars (sc_in s)) + 10 <= F)%nat ->
    exists sp s',
      scan_flow_scalar str_ops F single s = Ok ((sp, TScalar (style_of single) (dq_text first more)), s')
      /\ sp_start sp = sc_mark s.

Lemma scan_flow_scalar_text : C04_quoted_full.
Proof.
  intros F single n first more rest s Hwf src Hsrc Hclose Hfol Hn Hcol HF.
  (* the layout, uniformly in the style *)
  assert (Hlay : forallb (iwf single) first = true /\ seg_rest_wf (iwf single) (isrc single) n first more = true
                 /\ (single = true -> forallb (fun p => negb (bl_escaped (fst p))) more = true)
                 /\ src = ssrc single first ++ rest_src single more).
  { subst src. destruct single.
    - unfold sq_layout_wf in Hwf. apply andb_prop in Hwf. destruct Hwf as [Hwf H3]. apply andb_prop in Hwf. destruct Hwf as [H1 H2].
      repeat split; auto.
    - unfold dq_layout_wf in Hwf. apply andb_prop in Hwf. destruct Hwf as [H1 H2]. repeat split; auto. discriminate. }
  destruct Hlay as [Hfirst [Hrest [Hsq Esrc]]]. clearbody src. subst src. clear Hwf.
  set (q := quote_of single) in *.
  assert (Hrun : scan_flow_scalar str_ops F single s
                 = (start <- mark ;; skip_non_blank str_ops ;;; str <- loop F single start F [] false 0 [] ;; finish_flow_scalar F single start str)
                     (st_with s (q :: (ssrc single first ++ rest_src single more) ++ q :: rest) (si_look (sc_in s)) (sc_mark s) (sc_lws s))).
  { rewrite scan_flow_scalar_phases. f_equal. rewrite <- Hsrc. apply st_with_id. }
  rewrite Hrun. clear Hrun.
  set (l := si_look (sc_in s)). set (m := sc_mark s). set (w := sc_lws s).
  mstep (mark_st s (q :: (ssrc single first ++ rest_src single more) ++ q :: rest) l m w).
  mstep (skip_non_blank_st s (q :: (ssrc single first ++ rest_src single more) ++ q :: rest) l m w). cbn [tl].
  rewrite <- app_assoc.
  rewrite Hsrc in HF. cbn [length] in HF. rewrite !app_length in HF. cbn [length] in HF.
  destruct (segs_run F single m s n Hn rest Hclose more first Hrest Hsq) as [[x' [tail' [Eafter [Hsep' Hend']]]] Hruns].
  assert (Hml : (length more <= length (rest_src single more))%nat).
  { clear. induction more as [|[b seg] more IH]; [cbn; lia|]. cbn [rest_src flat_map length fst snd]. fold (rest_src single more).
    rewrite !app_length. pose proof (render_brk_len b). lia. }
  pose proof (ssrc_len single first) as Hsl.
  assert (Hm1 : colq_ok s (adv 1 m)) by (unfold colq_ok; rewrite adv_col; unfold m; lia).
  rewrite dq_text_rest. subst q.
  destruct more as [|[b1 seg1] more'] eqn:Emore.
  - (* one line: the position of the closing quote is known, a colon may follow in block context *)
    cbn [rest_src flat_map app] in *.
    pose proof (seg_from_head_m F single m s n (quote_of single) rest
                  (fun a m' o => exists l' w', o = Ok (a, st_with s (quote_of single :: rest) l' m' w')) 1%nat) as SH.
    assert (HA : forall fc f acc l0 m0 w0, (1 <= fc)%nat -> (1 <= f)%nat -> colq_ok s m0 ->
              exists l' w', bind (consume_nonws str_ops fc single acc m) (after_word F single (loop F single m f) false 0 [])
                                 (st_with s (quote_of single :: rest) l0 m0 w0) = Ok (acc, st_with s (quote_of single :: rest) l' m0 w')).
    { intros fc f acc l0 m0 w0 Hfc _ _. eexists; eexists. apply (at_quote F single m s n rest Hclose); exact Hfc. }
    destruct (SH HA (proj1 (sep_head_quote single rest Hclose)) first F [] l (adv 1 m) false Hfirst) as [l' [w' E]].
    + intros E0. exfalso. rewrite adv_col in E0. lia.
    + intros _. exact (proj2 (sep_head_quote single rest Hclose)).
    + lia.
    + lia.
    + exact Hm1.
    + mstep E.
      destruct (finish_run s F single m (rev (map item_val first) ++ []) rest l' (adv (N.of_nat (length (ssrc single first))) (adv 1 m)) w' false Hfol) as [sp [s' [Ef Hsp]]].
      * intros _. rewrite !adv_line. reflexivity.
      * lia.
      * exists sp, s'. split; [|exact Hsp]. rewrite Ef. rewrite app_nil_r, rev_involutive. cbn [qrest_text]. rewrite app_nil_r. reflexivity.
  - rewrite <- Emore in *. rewrite Eafter.
    assert (HB : forall fc f acc l0 m0 w0, (length (rest_src single more) + length more + 2 <= fc)%nat ->
              (length (rest_src single more) + length more + 2 <= f)%nat -> colq_ok s m0 ->
              Qfin single s rest more acc
                (bind (consume_nonws str_ops fc single acc m) (after_word F single (loop F single m f) false 0 [])
                      (st_with s (x' :: tail') l0 m0 w0))).
    { intros fc f acc l0 m0 w0 Hfc Hf Hm0. rewrite <- Eafter. apply Hruns; try assumption; lia. }
    destruct (seg_from_head_m F single m s n x' tail' (fun a _ o => Qfin single s rest more a o)
                (length (rest_src single more) + length more + 2)%nat HB
                Hsep' first F [] l (adv 1 m) false Hfirst) as [l' [w' [m' E]]].
    + intros E0. exfalso. rewrite adv_col in E0. lia.
    + rewrite ends_blank_last. exact Hend'.
    + lia.
    + lia.
    + exact Hm1.
    + mstep E.
      destruct (finish_run s F single m (rev (qrest_text more) ++ rev (map item_val first) ++ []) rest l' m' w' true) as [sp [s' [Ef Hsp]]].
      * exact Hfol.
      * discriminate.
      * lia.
      * exists sp, s'. split; [|exact Hsp]. rewrite Ef. rewrite app_nil_r, rev_app_distr, !rev_involutive. reflexivity.
Qed.
