(* C11 — aliases and the depth of the LOADED tree.

   An alias inserts a copy of the completed anchored node (YamlLoader::on_event: `Some(v) => v.clone()`), so the tree can be
   deeper than the events nest, and no nesting limit of the scanner bounds it:

   1. the ALIAS-CHAIN family  "- &a0 [a]" / "- &a1 [*a0]" / ... / "- &a(n-1) [*a(n-2)]"  as an event sentence: accepted by
      the grammar, event nesting 2 for every n, and the loader model builds ONE document of depth n + 1 (by induction on
      n): "the depth of the loaded tree is bounded by the nesting of the events (+ c)" is false for every c;
   2. the bound that DOES hold with aliases: every document of an accepted sentence is at most as deep as the sentence has
      collection-start events (each level of a chain in the tree is — a copy of — a node built for a different
      collection-start event, because an alias can only refer to a node completed before it) — linear in the size of the
      input, reached by the family. *)
From Coq Require Import List NArith ZArith Bool Lia PeanoNat.
Import ListNotations.
Require Import Parser Resolver Loader Grammar BuildDocs LoaderProofs Depth DepthProofs DepthTree.
Local Open Scope nat_scope.

(* 1. the family *)
(* element k: a sequence anchored k+1 holding the leaf (k = 0) or an alias to the previous element's anchor k *)
Definition alias_item (k : nat) : list event :=
  [ESequenceStart (N.of_nat (S k)) None; match k with O => leaf_ev | S _ => EAlias (N.of_nat k) end; ESequenceEnd].
Definition alias_events (n : nat) : list event :=
  EStreamStart :: EDocumentStart false :: ESequenceStart 0%N None
    :: flat_map alias_item (seq 0 n) ++ [ESequenceEnd; EDocumentEnd; EStreamEnd].
Fixpoint alias_anchors (k : nat) : list (N * yaml) :=
  match k with O => [] | S j => (N.of_nat (S j), nest_seq (S j) leaf_val) :: alias_anchors j end.
Definition alias_items (k : nat) : list yaml := map (fun j => nest_seq (S j) leaf_val) (seq 0 k).

(* the sentence is the flattening of one document: the outer sequence of the elements' trees *)
Definition alias_tree (k : nat) : etree :=
  TSeq (N.of_nat (S k)) None [match k with O => TScalar leaf_text Plain 0%N None | S _ => TAlias (N.of_nat k) end].
Definition alias_root (n : nat) : etree := TSeq 0%N None (map alias_tree (seq 0 n)).

Lemma alias_events_tree n : alias_events n = stream_of [(false, alias_root n)].
Proof.
  assert (E : forall l, flat_map alias_item l = events_items events_of (map alias_tree l)).
  { induction l as [|k l IH]; [reflexivity|]. cbn [flat_map map events_items]. rewrite IH. destruct k; reflexivity. }
  unfold alias_events, stream_of, events_docs, events_doc, alias_root. cbn [fst snd events_of]. rewrite E, app_nil_r.
  cbn [app]. rewrite <- !app_assoc. reflexivity.
Qed.

(* accepted by the grammar of event sentences, as every flattened list of documents is *)
Lemma stream_of_accepted ds : grun GInit (stream_of ds) = Some GEnd.
Proof.
  apply accepted_iff_parses. destruct (parse_events (stream_of ds)) as [ds'|] eqn:E; [eauto|].
  destruct (parse_events_complete ds E).
Qed.

Lemma alias_family_accepted n : grun GInit (alias_events n) = Some GEnd.
Proof. rewrite alias_events_tree. apply stream_of_accepted. Qed.

(* the events nest 2 deep, whatever n: every element's tree is 1 deep *)
Lemma alias_family_nesting n : 1 <= n -> max_nesting (alias_events n) = 2.
Proof.
  intros Hn. rewrite alias_events_tree, stream_of_nesting.
  assert (E : forall l, l <> [] -> list_max (map (fun x => S (tdepth x)) (map alias_tree l)) = 2).
  { induction l as [|k [|k' l] IH]; intros Hl; [congruence|destruct k; reflexivity|].
    cbn [map] in *. rewrite list_max_cons, IH by discriminate. destruct k; reflexivity. }
  cbn [map snd alias_root tdepth]. rewrite list_max_cons, E; [reflexivity|]. destruct n; [lia|discriminate].
Qed.

(* the loader's result is the specification's: element k registers a copy of element k - 1 inside a new sequence *)
Lemma pos_of_nat_S k : (0 <? N.of_nat (S k))%N = true.
Proof. apply N.ltb_lt. lia. Qed.

Lemma build_alias_tree k : build (alias_anchors k) (alias_tree k) = (nest_seq (S k) leaf_val, alias_anchors (S k)).
Proof.
  assert (E : build (alias_anchors k) (match k with O => TScalar leaf_text Plain 0%N None | S _ => TAlias (N.of_nat k) end)
              = (nest_seq k leaf_val, alias_anchors k)).
  { destruct k as [|j]; [reflexivity|]. cbn [build alias_anchors]. unfold deref. cbn [amap_get]. rewrite N.eqb_refl. reflexivity. }
  unfold alias_tree. cbn [build build_items]. rewrite E. unfold reg. rewrite pos_of_nat_S. reflexivity.
Qed.

Lemma alias_family_loads n :
  load_events (alias_events n) l0
  = LOk {| l_docs := [YSeq (alias_items n)]; l_stack := []; l_keys := []; l_anchors := alias_anchors n |}.
Proof.
  assert (E : forall m k, build_items build (alias_anchors k) (map alias_tree (seq k m))
                          = (map (fun j => nest_seq (S j) leaf_val) (seq k m), alias_anchors (k + m))).
  { induction m as [|m IH]; intros k; cbn [seq map build_items].
    - rewrite Nat.add_0_r. reflexivity.
    - rewrite build_alias_tree, IH, Nat.add_succ_r. reflexivity. }
  specialize (E n 0). cbn [alias_anchors Nat.add] in E.
  rewrite alias_events_tree, loader_refines_spec. unfold alias_root. cbn [build_docs build fst snd]. rewrite E. reflexivity.
Qed.

(* the document is n + 1 deep *)
Lemma alias_items_S k : alias_items (S k) = alias_items k ++ [nest_seq (S k) leaf_val].
Proof. unfold alias_items. rewrite seq_S, map_app. reflexivity. Qed.
Lemma alias_items_depths n :
  list_max (map (fun x => S (ydepth x)) (alias_items n)) = match n with O => 0 | S _ => S n end.
Proof.
  induction n as [|n IH]; [reflexivity|]. rewrite alias_items_S, map_app, list_max_app, IH. cbn [map].
  rewrite list_max_cons. destruct (family_tree_depth (S n)) as [E _]. rewrite E. cbn [list_max fold_right]. destruct n; lia.
Qed.
Lemma alias_family_depth n : 1 <= n ->
  ydepth (YSeq (alias_items n)) = n + 1 /\ forall d, ywalk d (YSeq (alias_items n)) = d + (n + 1).
Proof.
  intros Hn. assert (E : ydepth (YSeq (alias_items n)) = n + 1).
  { cbn [ydepth]. rewrite alias_items_depths. destruct n; lia. }
  split; [exact E|]. intros d. rewrite walk_depth_is_tree_depth, E. reflexivity.
Qed.

(* all of it *)
Theorem alias_family n : 1 <= n ->
  grun GInit (alias_events n) = Some GEnd
  /\ max_nesting (alias_events n) = 2
  /\ exists y anchors,
       load_events (alias_events n) l0 = LOk {| l_docs := [y]; l_stack := []; l_keys := []; l_anchors := anchors |}
       /\ ydepth y = n + 1 /\ forall d, ywalk d y = d + (n + 1).
Proof.
  intros Hn. split; [apply alias_family_accepted|]. split; [apply alias_family_nesting; exact Hn|].
  exists (YSeq (alias_items n)), (alias_anchors n). split; [apply alias_family_loads|]. apply alias_family_depth. exact Hn.
Qed.

(* "every document an accepted sentence loads to is at most (nesting of its events) + c deep" *)
Definition tree_depth_bounded_by_nesting (c : nat) : Prop :=
  forall evs ld, grun GInit evs = Some GEnd -> load_events evs l0 = LOk ld ->
    Forall (fun y => ydepth y <= max_nesting evs + c) (l_docs ld).

Theorem tree_depth_not_bounded_by_nesting : forall c, ~ tree_depth_bounded_by_nesting c.
Proof.
  intros c H. assert (Hn : 1 <= c + 2) by lia.
  destruct (alias_family (c + 2) Hn) as (HG & HN & y & an & HL & HD & _).
  specialize (H _ _ HG HL). cbn [l_docs] in H. inversion H as [|? ? Hy _]; subst. rewrite HN, HD in Hy. lia.
Qed.

(* 2. what does hold with aliases: depth <= number of collection-start events *)
Definition is_coll_start (e : event) : bool :=
  match e with ESequenceStart _ _ | EMappingStart _ _ => true | _ => false end.
Definition coll_starts (evs : list event) : nat := length (filter is_coll_start evs).
Definition list_sum' (l : list nat) : nat := fold_right Nat.add 0 l.

Fixpoint ncoll (t : etree) : nat :=
  match t with
  | TScalar _ _ _ _ | TAlias _ => 0
  | TSeq _ _ l => S (list_sum' (map ncoll l))
  | TMap _ _ l => S (list_sum' (map (fun kv => ncoll (fst kv) + ncoll (snd kv)) l))
  end.

Lemma coll_starts_app a b : coll_starts (a ++ b) = coll_starts a + coll_starts b.
Proof. unfold coll_starts. rewrite filter_app, app_length. reflexivity. Qed.

Lemma coll_starts_events_of : forall t, coll_starts (events_of t) = ncoll t.
Proof.
  induction t as [v st a tg|i|a tg l IH|a tg l IH] using etree_ind2; try reflexivity.
  - cbn [events_of ncoll]. change (ESequenceStart a tg :: events_items events_of l ++ [ESequenceEnd])
      with ([ESequenceStart a tg] ++ events_items events_of l ++ [ESequenceEnd]).
    rewrite !coll_starts_app. change (coll_starts [ESequenceStart a tg]) with 1. change (coll_starts [ESequenceEnd]) with 0.
    rewrite Nat.add_0_r. cbn [Nat.add]. f_equal. unfold list_sum'.
    induction IH as [|x r Hx _ IHr]; [reflexivity|]. cbn [events_items map fold_right]. rewrite coll_starts_app, Hx, IHr. reflexivity.
  - cbn [events_of ncoll]. change (EMappingStart a tg :: events_pairs events_of l ++ [EMappingEnd])
      with ([EMappingStart a tg] ++ events_pairs events_of l ++ [EMappingEnd]).
    rewrite !coll_starts_app. change (coll_starts [EMappingStart a tg]) with 1. change (coll_starts [EMappingEnd]) with 0.
    rewrite Nat.add_0_r. cbn [Nat.add]. f_equal. unfold list_sum'.
    induction IH as [|[kx vx] r [Hk Hv] _ IHr]; [reflexivity|]. cbn [fst snd] in Hk, Hv.
    cbn [events_pairs map fold_right fst snd]. rewrite !coll_starts_app, Hk, Hv, IHr. lia.
Qed.

(* the deepest value registered under an anchor *)
Definition amax (m : amap) : nat := list_max (map (fun p => ydepth (snd p)) m).
Lemma amax_reg a y m : amax (reg a y m) <= Nat.max (amax m) (ydepth y).
Proof. unfold reg, amax. destruct (0 <? a)%N; cbn [map snd]; [rewrite list_max_cons|]; lia. Qed.
Lemma amax_deref i m : ydepth (deref i m) <= amax m.
Proof.
  unfold deref, amax. induction m as [|[j y] r IH]; cbn [amap_get]; [cbn; lia|].
  cbn [map snd]. rewrite list_max_cons. destruct (N.eqb j i); [lia|]. etransitivity; [exact IH|]. lia.
Qed.

(* the value of a tree is at most (its collection nodes + the deepest registered value) deep, and so is everything it
   registers *)
Lemma build_depth_alias : forall t m,
  ydepth (fst (build m t)) <= ncoll t + amax m /\ amax (snd (build m t)) <= ncoll t + amax m.
Proof.
  induction t as [v st a tg|i|a tg l IH|a tg l IH] using etree_ind2; intros m.
  - cbn [build fst snd ncoll].
    assert (E : ydepth (value_of v st tg) = 0) by (unfold value_of; destruct (parse_from_cow_and_metadata _ _ _); reflexivity).
    rewrite E. split; [lia|]. pose proof (amax_reg a (value_of v st tg) m). lia.
  - cbn [build fst snd ncoll]. split; [apply amax_deref|lia].
  - cbn [build ncoll]. destruct (build_items build m l) as [ys m'] eqn:E. cbn [fst snd].
    assert (G : list_max (map (fun x => S (ydepth x)) ys) <= S (list_sum' (map ncoll l) + amax m)
                /\ amax m' <= list_sum' (map ncoll l) + amax m).
    { clear a tg. revert m ys m' E. induction IH as [|x r Hx _ IHr]; intros m ys m' E; cbn [build_items] in E.
      - inversion E; subst. cbn. lia.
      - destruct (build m x) as [y m1] eqn:E1. destruct (build_items build m1 r) as [ys2 m2] eqn:E2.
        inversion E; subst. destruct (Hx m) as [H1 H2]. rewrite E1 in H1, H2. cbn [fst snd] in H1, H2.
        destruct (IHr m1 ys2 m' E2) as [H3 H4]. cbn [map list_sum' fold_right]. fold (list_sum' (map ncoll r)).
        rewrite list_max_cons. lia. }
    destruct G as [G1 G2]. cbn [ydepth]. split; [lia|].
    pose proof (amax_reg a (YSeq ys) m'). cbn [ydepth] in H. lia.
  - cbn [build ncoll]. destruct (build_pairs build m l []) as [ps m'] eqn:E. cbn [fst snd].
    set (w := fun kv : etree * etree => ncoll (fst kv) + ncoll (snd kv)).
    assert (G : forall acc m ps m', build_pairs build m l acc = (ps, m') ->
                list_max (map pdepth ps) <= Nat.max (list_max (map pdepth acc)) (S (list_sum' (map w l) + amax m))
                /\ amax m' <= list_sum' (map w l) + amax m).
    { clear E m ps m'. induction IH as [|[kt vt] r [Hk Hv] _ IHr]; intros acc m ps m' E; cbn [build_pairs] in E.
      - inversion E; subst. cbn. lia.
      - cbn [fst snd] in Hk, Hv. destruct (build m kt) as [ky m1] eqn:E1. destruct (build m1 vt) as [vy m2] eqn:E2.
        destruct (Hk m) as [K1 K2]. rewrite E1 in K1, K2. destruct (Hv m1) as [V1 V2]. rewrite E2 in V1, V2.
        cbn [fst snd] in K1, K2, V1, V2. destruct (IHr _ _ _ _ E) as [R1 R2].
        pose proof (map_insert_depth ky vy acc). cbn [map list_sum' fold_right]. fold (list_sum' (map w r)).
        unfold w at 1 3. cbn [fst snd]. lia. }
    destruct (G [] m ps m' E) as [G1 G2]. cbn [map list_max fold_right] in G1.
    change (list_max (map (fun kv : yaml * yaml => Nat.max (S (ydepth (fst kv))) (S (ydepth (snd kv)))) ps))
      with (list_max (map pdepth ps)).
    assert (ED : ydepth (YMap ps) = list_max (map pdepth ps)) by reflexivity.
    split; [rewrite ED; lia|]. pose proof (amax_reg a (YMap ps) m'). rewrite ED in H. lia.
Qed.

Lemma docs_depth_alias ds : forall m,
  Forall (fun y => ydepth y <= coll_starts (events_docs ds) + amax m) (fst (build_docs m ds)).
Proof.
  induction ds as [|[e t] r IH]; intros m; [constructor|].
  cbn [events_docs build_docs]. unfold events_doc. cbn [fst snd].
  destruct (build m t) as [y m1] eqn:E1. destruct (build_docs m1 r) as [ys m2] eqn:E2. cbn [fst].
  change (EDocumentStart e :: events_of t ++ [EDocumentEnd]) with ([EDocumentStart e] ++ events_of t ++ [EDocumentEnd]).
  rewrite !coll_starts_app, coll_starts_events_of. cbn [coll_starts filter is_coll_start length].
  destruct (build_depth_alias t m) as [H1 H2]. rewrite E1 in H1, H2. cbn [fst snd] in H1, H2.
  constructor; [lia|]. specialize (IH m1). rewrite E2 in IH. cbn [fst] in IH.
  eapply Forall_impl; [|exact IH]. cbn beta. intros y' Hy. lia.
Qed.

(* Every event sentence the grammar accepts — aliases or not: the loader model builds its documents (no panic) and none
   of them is deeper than the sentence has collection-start events; so every recursive traversal of a loaded document
   (clone, drop, eq, hash, emit) entered at depth d reaches at most d + that number.  Reached by the alias chain. *)
Theorem loaded_tree_depth_le_collection_starts evs :
  grun GInit evs = Some GEnd ->
  exists ld, load_events evs l0 = LOk ld
             /\ Forall (fun y => ydepth y <= coll_starts evs /\ forall d, ywalk d y <= d + coll_starts evs) (l_docs ld).
Proof.
  intros HG. destruct (accepted_loads_spec evs HG) as (ds & ld & _ & E & HL & HD & _ & _).
  exists ld. split; [exact HL|].
  assert (HF : Forall (fun y => ydepth y <= coll_starts evs) (spec_load ds)).
  { subst evs. unfold spec_load, stream_of.
    change (EStreamStart :: events_docs ds ++ [EStreamEnd]) with ([EStreamStart] ++ events_docs ds ++ [EStreamEnd]).
    rewrite !coll_starts_app. cbn [coll_starts filter is_coll_start length].
    pose proof (docs_depth_alias ds []) as H. eapply Forall_impl; [|exact H]. cbn beta. intros y Hy.
    unfold amax in Hy. cbn in Hy. fold (coll_starts (events_docs ds)) in Hy. lia. }
  rewrite <- HD in HF. apply Forall_rev in HF. rewrite rev_involutive in HF.
  eapply Forall_impl; [|exact HF]. cbn beta. intros y Hy. split; [exact Hy|].
  intros d. rewrite walk_depth_is_tree_depth. lia.
Qed.

(* the family reaches it: n + 1 collection starts, depth n + 1 *)
Lemma alias_family_coll_starts n : coll_starts (alias_events n) = n + 1.
Proof.
  unfold alias_events.
  change (EStreamStart :: EDocumentStart false :: ESequenceStart 0%N None :: flat_map alias_item (seq 0 n) ++ [ESequenceEnd; EDocumentEnd; EStreamEnd])
    with ([EStreamStart; EDocumentStart false; ESequenceStart 0%N None] ++ flat_map alias_item (seq 0 n) ++ [ESequenceEnd; EDocumentEnd; EStreamEnd]).
  rewrite !coll_starts_app.
  assert (E : forall m k, coll_starts (flat_map alias_item (seq k m)) = m).
  { induction m as [|m IH]; intros k; [reflexivity|]. cbn [seq flat_map]. rewrite coll_starts_app, IH.
    unfold alias_item. destruct k; reflexivity. }
  rewrite E. change (coll_starts [EStreamStart; EDocumentStart false; ESequenceStart 0%N None]) with 1.
  change (coll_starts [ESequenceEnd; EDocumentEnd; EStreamEnd]) with 0. lia.
Qed.
