(* Json.jvalue: induction with the nested lists under Forall. *)
From Coq Require Import List.
Import ListNotations.
Require Import Resolver Json ListKit.

Section jvalue_induction.
  Variable Pr : jvalue -> Prop.
  Hypothesis Hnull : Pr JNull.
  Hypothesis Hbool : forall b, Pr (JBool b).
  Hypothesis Hnum : forall t, Pr (JNum t).
  Hypothesis Hstr : forall s, Pr (JStr s).
  Hypothesis Harr : forall l, Forall Pr l -> Pr (JArr l).
  Hypothesis Hobj : forall l, Forall (fun kv => Pr (snd kv)) l -> Pr (JObj l).
  Fixpoint jvalue_ind2 (v : jvalue) : Pr v :=
    match v with
    | JNull => Hnull
    | JBool b => Hbool b
    | JNum t => Hnum t
    | JStr s => Hstr s
    | JArr l => Harr l (Forall_all Pr jvalue_ind2 l)
    | JObj l => Hobj l (Forall_all _ (fun kv => jvalue_ind2 (snd kv)) l)
    end.
End jvalue_induction.
