(* The family of directives and tags (Model/SDir.v) under any lock.

   Every loop of the family is in lockstep (an iteration consumes characters that were just tested by a class that is
   false on LF, so no line break is ever consumed inside a tag or a directive); TWO fuels everywhere.  The error
   markers are the [start] mark read by the entry point: [M mk1 mk2] on the two sides.

   Where the alignment comes from:
     - scan_uri_escapes re-reads three characters in each of its (at most 4) rounds; in a continuation round the
       first one may be a line feed.  [esc_seen]: the test ('%', hex, hex) gives the same answer on both sides
       whatever the alignment (a line feed, however side 2 shows it, is neither '%' nor a hex digit), and when it
       succeeds the three characters are aligned and equal, so [skip_n_non_blank 3] is in lockstep;
     - scan_tag: [nth_char_is 1 '<'] is aligned by the precondition; when it holds, "!<" has no LF: scan_verbatim_tag;
     - everything else: the character class / literal that was just tested. *)
From Coq Require Import List NArith ZArith Bool Arith Lia.
Import ListNotations.
Require Import Parser SBase SPrim SDir SScalar SFetch ScanLock ScanLockPrim.
Local Open Scope nat_scope.

(* both sides branch on the same (syntactically equal) test *)
Ltac bif :=
  cbv beta;
  match goal with |- lwp _ (if ?b then _ else _) (if ?b then _ else _) _ _ _ => destruct b end.

Section Dir.
Context {b1 : chr -> chr} {M : marker -> marker -> Prop} {R : bst -> bst -> Prop} (L : lock b1 M R).
Local Notation wp := (lwp M).

(* scan_uri_escapes *)
(* the test of one round: '%' followed by two hex digits *)
Definition esc_ok (s : bst) : bool := ((rn s 0 =? 37)%N && is_hex (rn s 1) && is_hex (rn s 2)).

Lemma esc_seen s1 s2 : R s1 s2 ->
  esc_ok s2 = esc_ok s1 /\
  (esc_ok s1 = true -> noLF 3 (rm s1) /\ rn s2 1 = rn s1 1 /\ rn s2 2 = rn s1 2).
Proof.
  intros H. pose proof (l_seen L _ _ H) as HS. pose proof (l_sees L) as Hb. unfold esc_ok.
  rewrite (seen_0_lit b1 Hb s1 s2 HS 37%N eq_refl).
  destruct (rn s1 0 =? 37)%N eqn:E0; [|split; [reflexivity|discriminate]]. cbn [andb].
  assert (N0 : rn s1 0 <> 10%N) by exact (lit_eq_noLF _ 37%N eq_refl E0).
  rewrite (seen_1 b1 s1 s2 HS N0), (sees_is_hex _ Hb).
  destruct (is_hex (rn s1 1)) eqn:E1; [|split; [reflexivity|discriminate]]. cbn [andb].
  assert (N1 : rn s1 1 <> 10%N) by (intros X; rewrite X in E1; discriminate).
  assert (L2 : noLF 2 (rm s1)) by (apply noLF_S; [apply noLF_1; exact N0|exact N1]).
  rewrite (HS 2 L2), (sees_is_hex _ Hb). split; [reflexivity|]. intros E2.
  assert (N2 : rn s1 2 <> 10%N) by (intros X; rewrite X in E2; discriminate).
  split; [apply noLF_S; [exact L2|exact N2]|]. split; apply (sees_other _ Hb); assumption.
Qed.

Lemma lwp_scan_uri_escapes mk1 mk2 s1 s2 : R s1 s2 -> M mk1 mk2 ->
  wp (scan_uri_escapes sops mk1) (scan_uri_escapes sops mk2) (lpost R eq) s1 s2.
Proof.
  intros H HM. cbv beta delta [scan_uri_escapes].
  match goal with |- lwp _ (?g1 5 0%N 0%N 0%N true) (?g2 5 0%N 0%N 0%N true) _ _ _ =>
    cut (forall f1 f2 w ln cd fs u1 u2, R u1 u2 -> wp (g1 f1 w ln cd fs) (g2 f2 w ln cd fs) (lpost R eq) u1 u2);
    [intros HL; apply HL; exact H|] end.
  clear s1 s2 H. induction f1 as [|f1 IH]; intros f2 w ln cd fs s1 s2 H; [exact I|].
  destruct f2 as [|f2]; [apply lwp_oof_r|].
  cbv beta iota zeta.
  apply lwp_bind. apply (lwp_look L); [exact H|]. intros u1 u2 HU _ _ _ _ _.
  apply lwp_bind. apply lwp_peekn_raw. cbv beta.
  apply lwp_bind. apply lwp_peekn_raw. cbv beta.
  apply lwp_bind. apply lwp_peekn_raw. cbv beta.
  destruct (esc_seen u1 u2 HU) as [EC EA]. unfold esc_ok in EC, EA. rewrite EC.
  destruct ((rn u1 0 =? 37)%N && is_hex (rn u1 1) && is_hex (rn u1 2)) eqn:Ee; cbn [negb];
    [|apply lwp_fail; exact HM].
  destruct (EA eq_refl) as (L3 & E1 & E2). rewrite E1, E2.
  apply lwp_bind.
  match goal with |- lwp _ _ _ ?QQ _ _ => assert (HC : forall r, QQ r u1 r u2) end.
  { intros [w' cd']. cbv beta iota zeta.
    apply lwp_bind. apply (lwp_skip_n_non_blank L); [exact HU|exact L3|]. intros v1 v2 HV _.
    bif.
    - bif; [apply lwp_ret_bpost; [reflexivity|exact HV]|apply lwp_fail; exact HM].
    - apply IH; exact HV. }
  destruct fs; repeat bif; try (apply lwp_fail; exact HM);
    match goal with |- lwp _ (ret ?x) (ret ?x) _ _ _ => apply lwp_ret; exact (HC x) end.
Qed.

(* tags *)
Lemma lwp_scan_tag_handle F1 F2 d mk1 mk2 s1 s2 : R s1 s2 -> M mk1 mk2 ->
  wp (scan_tag_handle sops F1 d mk1) (scan_tag_handle sops F2 d mk2) (lpost R eq) s1 s2.
Proof.
  intros H HM. unfold scan_tag_handle.
  apply lwp_bind. apply (lwp_look_ch L); [exact H|]. intros u1 u2 HU _ _ _ _. b1_norm L.
  destruct (N.eqb_spec (rn u1 0) 33) as [E33|N33]; cbn [negb]; [|apply lwp_fail; exact HM].
  assert (N0 : rn u1 0 <> 10%N) by (rewrite E33; discriminate).
  apply lwp_bind. apply (lwp_skip_non_blank L); [exact HU|exact N0|]. intros v1 v2 HV _.
  apply lwp_bind. apply (lwp_in_fetch_while_alpha L); [exact HV|]. intros r w1 w2 HW _ _ _.
  apply lwp_bind. apply (lwp_adv_mark L); [exact HW|]. intros x1 x2 HX _.
  apply lwp_bind. apply (lwp_peek L); [exact HX|]. b1_norm L.
  destruct (N.eqb_spec (rn x1 0) 33) as [E|N].
  - apply lwp_bind. apply (lwp_skip_non_blank L); [exact HX|rewrite E; discriminate|]. intros y1 y2 HY _.
    apply lwp_ret_bpost; [reflexivity|exact HY].
  - bif; [apply lwp_fail; exact HM|apply lwp_ret_bpost; [reflexivity|exact HX]].
Qed.

(* the generic uri loop; [p] is is_uri_char or is_tag_char: blind to what side 2 shows and false on LF *)
Lemma lwp_uri_loop F1 F2 p mk1 mk2 acc s1 s2 : R s1 s2 -> M mk1 mk2 -> blind b1 p -> p 10%N = false ->
  wp (uri_loop sops F1 p mk1 acc) (uri_loop sops F2 p mk2 acc) (lpost R eq) s1 s2.
Proof.
  intros H HM Hp Hlf. unfold uri_loop.
  match goal with |- lwp _ (?g1 F1 acc 0%N) (?g2 F2 acc 0%N) _ _ _ =>
    cut (forall f1 f2 a n u1 u2, R u1 u2 -> wp (g1 f1 a n) (g2 f2 a n) (lpost R eq) u1 u2);
    [intros HL; apply HL; exact H|] end.
  clear s1 s2 H. induction f1 as [|f1 IH]; intros f2 a n s1 s2 H; [exact I|].
  destruct f2 as [|f2]; [apply lwp_oof_r|].
  cbv beta iota zeta.
  apply lwp_bind. apply (lwp_look_ch L); [exact H|]. intros u1 u2 HU _ _ _ _. rewrite Hp.
  destruct (p (rn u1 0)) eqn:Ep; [|apply lwp_ret_bpost; [reflexivity|exact HU]].
  assert (N0 : rn u1 0 <> 10%N) by (intros E; rewrite E, Hlf in Ep; discriminate).
  rewrite ?(sees_other _ (l_sees L) _ N0).
  bif.
  - eapply lwp_call_eq; [apply lwp_scan_uri_escapes; [exact HU|exact HM]|]. intros e v1 v2 HV. apply IH; exact HV.
  - apply lwp_bind. apply (lwp_skip_non_blank L); [exact HU|exact N0|]. intros v1 v2 HV _. apply IH; exact HV.
Qed.

Lemma lwp_scan_tag_prefix F1 F2 mk1 mk2 s1 s2 : R s1 s2 -> M mk1 mk2 ->
  wp (scan_tag_prefix sops F1 mk1) (scan_tag_prefix sops F2 mk2) (lpost R eq) s1 s2.
Proof.
  intros H HM. unfold scan_tag_prefix.
  apply lwp_bind. apply (lwp_look_ch L); [exact H|]. intros u1 u2 HU _ _ _ _.
  apply lwp_bind.
  match goal with |- lwp _ _ _ ?QQ _ _ => assert (HC : forall acc t1 t2, R t1 t2 -> QQ acc t1 acc t2) end.
  { intros acc t1 t2 HT. cbv beta.
    eapply lwp_call_eq; [apply lwp_uri_loop; [exact HT|exact HM|exact (sees_is_uri_char _ (l_sees L))|reflexivity]|].
    intros r v1 v2 HV. apply lwp_ret_bpost; [reflexivity|exact HV]. }
  b1_norm L.
  destruct (N.eqb_spec (rn u1 0) 33) as [E|N].
  - apply lwp_bind. apply (lwp_skip_non_blank L); [exact HU|rewrite E; discriminate|]. intros v1 v2 HV _.
    apply lwp_ret. apply HC; exact HV.
  - destruct (is_tag_char (rn u1 0)) eqn:Et; cbn [negb]; [|apply lwp_fail; exact HM].
    assert (N0 : rn u1 0 <> 10%N) by (intros E; rewrite E in Et; discriminate).
    rewrite ?(sees_other _ (l_sees L) _ N0).
    bif.
    + eapply lwp_call_eq; [apply lwp_scan_uri_escapes; [exact HU|exact HM]|]. intros e v1 v2 HV.
      apply lwp_ret. apply HC; exact HV.
    + apply lwp_bind. apply (lwp_skip_non_blank L); [exact HU|exact N0|]. intros v1 v2 HV _.
      apply lwp_ret. apply HC; exact HV.
Qed.

(* scan_verbatim_tag skips "!<" at once: neither may be a line feed *)
Lemma lwp_scan_verbatim_tag F1 F2 mk1 mk2 s1 s2 : R s1 s2 -> M mk1 mk2 -> noLF 2 (rm s1) ->
  wp (scan_verbatim_tag sops F1 mk1) (scan_verbatim_tag sops F2 mk2) (lpost R eq) s1 s2.
Proof.
  intros H HM L2. unfold scan_verbatim_tag.
  assert (N0 : rn s1 0 <> 10%N) by (apply (L2 0); lia).
  apply lwp_bind. apply (lwp_skip_non_blank L); [exact H|exact N0|]. intros u1 u2 HU RU.
  assert (N1 : rn u1 0 <> 10%N) by (rewrite (rn_tl u1 s1 0 RU); apply (L2 1); lia).
  apply lwp_bind. apply (lwp_skip_non_blank L); [exact HU|exact N1|]. intros v1 v2 HV _.
  eapply lwp_call_eq; [apply lwp_uri_loop; [exact HV|exact HM|exact (sees_is_uri_char _ (l_sees L))|reflexivity]|].
  intros r w1 w2 HW.
  apply lwp_bind. apply (lwp_peek L); [exact HW|]. b1_norm L.
  destruct (N.eqb_spec (rn w1 0) 62) as [E|N]; cbn [negb]; [|apply lwp_fail; exact HM].
  apply lwp_bind. apply (lwp_skip_non_blank L); [exact HW|rewrite E; discriminate|]. intros x1 x2 HX _.
  apply lwp_ret_bpost; [reflexivity|exact HX].
Qed.

Lemma lwp_scan_tag_shorthand_suffix F1 F2 head mk1 mk2 s1 s2 : R s1 s2 -> M mk1 mk2 ->
  wp (scan_tag_shorthand_suffix sops F1 head mk1) (scan_tag_shorthand_suffix sops F2 head mk2) (lpost R eq) s1 s2.
Proof.
  intros H HM. unfold scan_tag_shorthand_suffix. cbv beta zeta.
  eapply lwp_call_eq; [apply lwp_uri_loop; [exact H|exact HM|exact (sees_is_tag_char _ (l_sees L))|reflexivity]|].
  intros r u1 u2 HU.
  bif; [apply lwp_fail; exact HM|apply lwp_ret_bpost; [reflexivity|exact HU]].
Qed.

Theorem scan_tag_ok F1 F2 s1 s2 : R s1 s2 -> rn s1 0 <> 10%N ->
  wp (scan_tag sops F1) (scan_tag sops F2) (lpost R (Mtok M)) s1 s2.
Proof.
  intros H N0. unfold scan_tag.
  apply lwp_bind. apply (lwp_mark L); [exact H|]. intros HM0.
  apply lwp_bind. apply (lwp_look L); [exact H|]. intros u1 u2 HU RU _ _ _ _.
  assert (N0u : rn u1 0 <> 10%N) by (rewrite (rn_eq u1 s1 0 RU); exact N0).
  apply lwp_bind. apply (lwp_nth_char_is L); [exact HU|apply noLF_1; exact N0u|reflexivity|].
  apply lwp_bind.
  match goal with |- lwp _ _ _ ?QQ _ _ => assert (HC : forall hs t1 t2, R t1 t2 -> QQ hs t1 hs t2) end.
  { intros hs t1 t2 HT. cbv beta.
    apply lwp_bind. apply (lwp_look_ch L); [exact HT|]. intros v1 v2 HV _ _ _ _.
    apply lwp_bind. apply (lwp_flow_level L); [exact HV|]. cbv beta. b1_norm L.
    bif; [|apply lwp_fail; exact HM0].
    apply lwp_bind. apply (lwp_mark L); [exact HV|]. intros HM1.
    apply lwp_ret_bpost; [|exact HV]. apply Mtok_mk. apply Msp_mk; assumption. }
  destruct (N.eqb_spec (rn u1 1) 60) as [E60|N60].
  - assert (N1u : rn u1 1 <> 10%N) by (rewrite E60; discriminate).
    eapply lwp_call_eq;
      [apply lwp_scan_verbatim_tag; [exact HU|exact HM0|apply noLF_S; [apply noLF_1; exact N0u|exact N1u]]|].
    intros sfx t1 t2 HT. apply lwp_ret. apply HC; exact HT.
  - eapply lwp_call_eq; [apply lwp_scan_tag_handle; [exact HU|exact HM0]|]. intros h t1 t2 HT.
    bif.
    + eapply lwp_call_eq; [apply lwp_scan_tag_shorthand_suffix; [exact HT|exact HM0]|]. intros sfx v1 v2 HV.
      apply lwp_ret. apply HC; exact HV.
    + eapply lwp_call_eq; [apply lwp_scan_tag_shorthand_suffix; [exact HT|exact HM0]|]. intros sfx v1 v2 HV.
      destruct sfx; apply lwp_ret; apply HC; exact HV.
Qed.

(* directives *)
(* the modelled u32-overflow panic (site 120) is the same panic on both sides *)
Lemma lwp_version_number F1 F2 mk1 mk2 s1 s2 : R s1 s2 -> M mk1 mk2 ->
  wp (scan_version_directive_number sops F1 mk1) (scan_version_directive_number sops F2 mk2) (lpost R eq) s1 s2.
Proof.
  intros H HM. unfold scan_version_directive_number.
  match goal with |- lwp _ (?g1 F1 0%N 0%N) (?g2 F2 0%N 0%N) _ _ _ =>
    cut (forall f1 f2 val len u1 u2, R u1 u2 -> wp (g1 f1 val len) (g2 f2 val len) (lpost R eq) u1 u2);
    [intros HL; apply HL; exact H|] end.
  clear s1 s2 H. induction f1 as [|f1 IH]; intros f2 val len s1 s2 H; [exact I|].
  destruct f2 as [|f2]; [apply lwp_oof_r|].
  cbv beta iota zeta.
  apply lwp_bind. apply (lwp_look_ch L); [exact H|]. intros u1 u2 HU _ _ _ _. b1_norm L.
  destruct (is_digit (rn u1 0)) eqn:Ed.
  - assert (N0 : rn u1 0 <> 10%N) by (intros E; rewrite E in Ed; discriminate).
    rewrite ?(sees_other _ (l_sees L) _ N0).
    bif; [apply lwp_fail; exact HM|].
    apply lwp_bind. bif; [apply lwp_panic_l|]. apply lwp_ret. cbv beta.
    apply lwp_bind. apply (lwp_skip_non_blank L); [exact HU|exact N0|]. intros v1 v2 HV _.
    apply IH; exact HV.
  - bif; [apply lwp_fail; exact HM|apply lwp_ret_bpost; [reflexivity|exact HU]].
Qed.

Lemma lwp_version_value F1 F2 mk1 mk2 s1 s2 : R s1 s2 -> M mk1 mk2 ->
  wp (scan_version_directive_value sops F1 mk1) (scan_version_directive_value sops F2 mk2) (lpost R (Mtok M)) s1 s2.
Proof.
  intros H HM. unfold scan_version_directive_value.
  apply lwp_bind. apply (lwp_in_skip_while_blank L); [exact H|]. intros n u1 u2 HU _ _ _.
  apply lwp_bind. apply (lwp_adv_mark L); [exact HU|]. intros v1 v2 HV _.
  eapply lwp_call_eq; [apply lwp_version_number; [exact HV|exact HM]|]. intros major w1 w2 HW.
  apply lwp_bind. apply (lwp_peek L); [exact HW|]. b1_norm L.
  destruct (N.eqb_spec (rn w1 0) 46) as [E|N]; cbn [negb]; [|apply lwp_fail; exact HM].
  apply lwp_bind. apply (lwp_skip_non_blank L); [exact HW|rewrite E; discriminate|]. intros x1 x2 HX _.
  eapply lwp_call_eq; [apply lwp_version_number; [exact HX|exact HM]|]. intros minor y1 y2 HY.
  apply lwp_bind. apply (lwp_mark L); [exact HY|]. intros HM1.
  apply lwp_ret_bpost; [|exact HY]. apply Mtok_mk. apply Msp_mk; assumption.
Qed.

Lemma lwp_tag_directive_value F1 F2 mk1 mk2 s1 s2 : R s1 s2 -> M mk1 mk2 ->
  wp (scan_tag_directive_value sops F1 mk1) (scan_tag_directive_value sops F2 mk2) (lpost R (Mtok M)) s1 s2.
Proof.
  intros H HM. unfold scan_tag_directive_value.
  apply lwp_bind. apply (lwp_in_skip_while_blank L); [exact H|]. intros n u1 u2 HU _ _ _.
  apply lwp_bind. apply (lwp_adv_mark L); [exact HU|]. intros v1 v2 HV _.
  eapply lwp_call_eq; [apply lwp_scan_tag_handle; [exact HV|exact HM]|]. intros h w1 w2 HW.
  apply lwp_bind. apply (lwp_in_skip_while_blank L); [exact HW|]. intros n' x1 x2 HX _ _ _.
  apply lwp_bind. apply (lwp_adv_mark L); [exact HX|]. intros y1 y2 HY _.
  eapply lwp_call_eq; [apply lwp_scan_tag_prefix; [exact HY|exact HM]|]. intros p z1 z2 HZ.
  apply lwp_bind. apply (lwp_look L); [exact HZ|]. intros a1 a2 HA _ _ _ _ _.
  apply lwp_bind. apply (lwp_peek L); [exact HA|]. b1_norm L.
  bif; [|apply lwp_fail; exact HM].
  apply lwp_bind. apply (lwp_mark L); [exact HA|]. intros HM1.
  apply lwp_ret_bpost; [|exact HA]. apply Mtok_mk. apply Msp_mk; assumption.
Qed.

Lemma lwp_directive_name F1 F2 s1 s2 : R s1 s2 ->
  wp (scan_directive_name sops F1) (scan_directive_name sops F2) (lpost R eq) s1 s2.
Proof.
  intros H. unfold scan_directive_name.
  apply lwp_bind. apply (lwp_mark L); [exact H|]. intros HM0.
  apply lwp_bind. apply (lwp_in_fetch_while_alpha L); [exact H|]. intros r u1 u2 HU _ _ _.
  apply lwp_bind. apply (lwp_adv_mark L); [exact HU|]. intros v1 v2 HV _.
  destruct (fst r) as [|x l]; [apply lwp_fail; exact HM0|].
  apply lwp_bind. apply (lwp_peek L); [exact HV|]. b1_norm L.
  bif; [apply lwp_ret_bpost; [reflexivity|exact HV]|apply lwp_fail; exact HM0].
Qed.

Theorem scan_directive_ok F1 F2 s1 s2 : R s1 s2 -> rn s1 0 <> 10%N ->
  wp (scan_directive sops F1) (scan_directive sops F2) (lpost R (Mtok M)) s1 s2.
Proof.
  intros H N0. unfold scan_directive.
  apply lwp_bind. apply (lwp_mark L); [exact H|]. intros HM0.
  apply lwp_bind. apply (lwp_skip_non_blank L); [exact H|exact N0|]. intros u1 u2 HU _.
  eapply lwp_call_eq; [apply lwp_directive_name; exact HU|]. intros name v1 v2 HV.
  apply lwp_bind.
  match goal with |- lwp _ _ _ ?QQ _ _ =>
    assert (HC : forall tk1 tk2 t1 t2, (Mtok M) tk1 tk2 -> R t1 t2 -> QQ tk1 t1 tk2 t2) end.
  { intros tk1 tk2 t1 t2 HTR HT. cbv beta.
    eapply lwp_call_eq; [apply (skip_ws_to_eol_ok L); exact HT|]. intros tw w1 w2 HW.
    apply lwp_bind. apply (lwp_next_is L); [exact HW|exact (sees_is_breakz _ (l_sees L))|].
    bif; [|apply lwp_fail; exact HM0].
    (* the line break that ends the directive: one step *)
    apply lwp_bind. apply (lwp_look L); [exact HW|]. intros x1 x2 HX _ _ _ _ _.
    apply lwp_bind. apply (l_skip_linebreak L); [exact HX|]. intros y1 y2 HY.
    apply lwp_ret_bpost; [exact HTR|exact HY]. }
  bif.
  - eapply lwp_mono; [apply lwp_version_value; [exact HV|exact HM0]|].
    intros tk1 t1 tk2 t2 [HTR HT]. apply HC; assumption.
  - bif.
    + eapply lwp_mono; [apply lwp_tag_directive_value; [exact HV|exact HM0]|].
      intros tk1 t1 tk2 t2 [HTR HT]. apply HC; assumption.
    + apply lwp_bind. apply (lwp_in_skip_while_non_breakz L); [exact HV|]. intros n t1 t2 HT _ _ _.
      apply lwp_bind. apply (lwp_adv_mark L); [exact HT|]. intros w1 w2 HW _.
      apply lwp_bind. apply (lwp_mark L); [exact HW|]. intros HM1.
      apply lwp_ret. apply HC; [|exact HW]. apply Mtok_mk. apply Msp_mk; assumption.
Qed.

End Dir.
