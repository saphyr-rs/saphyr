(* C16 — percent-decoding: the scanner model's scan_uri_escapes (Model/SDir.v) against the RFC 3629
   specification of Spec/TagSpec.v.

   Main results
     utf8_decode_strict        the specification's decoder accepts a byte sequence iff it is [utf8_encode c] for a
                               Unicode scalar value c (shortest form, no surrogates, at most U+10FFFF), and yields c
     scan_uri_escapes_exact    on EVERY scanner state over the string back-end the model returns exactly what the
                               specification's reader of one escaped character ([take_escaped_char]) returns, having
                               consumed exactly those escapes, and reports an error (sites 50..53) exactly when the
                               specification has no reading; it never runs out of fuel and never panics
     scan_uri_escapes_strict   byte level, both directions: the escapes of a byte sequence are accepted as a whole
                               iff the sequence is the UTF-8 encoding of a scalar value, and then that value is returned
     scan_uri_escapes_rejects  a byte sequence none of whose prefixes is such an encoding is an error             *)
From Coq Require Import List NArith ZArith Bool Lia.
Import ListNotations.
Require Import Parser TagSpec SBase SPrim SDir ListKit.
Open Scope N_scope.
Open Scope mon_scope.

(* 1. The specification alone: the decoder is strict and inverse to the encoder *)
Ltac Zify.zify_post_hook ::= Z.to_euclidean_division_equations.

Lemma Forall_skipn : forall {A} (P : A -> Prop) k l, Forall P l -> Forall P (skipn k l).
Proof.
  intros A P k. induction k as [|k IH]; intros l H; [exact H|]. destruct l; [exact H|].
  cbn [skipn]. apply IH. inversion H; assumption.
Qed.

Lemma firstn_app_exact : forall {A} (a b : list A), firstn (length a) (a ++ b) = a.
Proof. intros A a b. rewrite firstn_app, Nat.sub_diag, firstn_all. apply app_nil_r. Qed.

Lemma skipn_app_exact : forall {A} (a b : list A), skipn (length a) (a ++ b) = b.
Proof. intros A a b. rewrite skipn_app, Nat.sub_diag, skipn_all. reflexivity. Qed.

Lemma is_scalar_iff : forall c, is_scalar_value c = true <-> c < 55296 \/ (57343 < c /\ c <= 1114111).
Proof.
  intros c. unfold is_scalar_value. rewrite orb_true_iff, andb_true_iff, !N.ltb_lt, N.leb_le. reflexivity.
Qed.

Lemma is_scalar_le : forall c, is_scalar_value c = true -> c <= 1114111.
Proof. intros c H. apply is_scalar_iff in H. lia. Qed.

(* the four classes of RFC 3629 section 3, each with its bytes *)
Inductive utf8_class (c : N) : list N -> Prop :=
| class1 : c < 128 -> utf8_class c [c]
| class2 : 128 <= c < 2048 -> utf8_class c [192 + c / 64; 128 + c mod 64]
| class3 : 2048 <= c < 65536 -> utf8_class c [224 + c / 4096; 128 + (c / 64) mod 64; 128 + c mod 64]
| class4 : 65536 <= c ->
    utf8_class c [240 + c / 262144; 128 + (c / 4096) mod 64; 128 + (c / 64) mod 64; 128 + c mod 64].

Lemma utf8_encode_cases : forall c, utf8_class c (utf8_encode c).
Proof.
  intros c. unfold utf8_encode.
  destruct (N.ltb_spec c 128); [constructor; assumption|].
  destruct (N.ltb_spec c 2048); [constructor; lia|].
  destruct (N.ltb_spec c 65536); constructor; lia.
Qed.

Lemma between_iff : forall lo hi c, (lo <=? c) && (c <=? hi) = true <-> lo <= c <= hi.
Proof. intros lo hi c. rewrite andb_true_iff, !N.leb_le. reflexivity. Qed.

Lemma between_intro : forall lo hi c, lo <= c <= hi -> (lo <=? c) && (c <=? hi) = true.
Proof. intros lo hi c. apply between_iff. Qed.

Lemma cont_mk : forall x, continuation (128 + x mod 64) = true.
Proof. intros x. apply between_intro. lia. Qed.

Lemma utf8_round_trip : forall c, is_scalar_value c = true -> utf8_decode (utf8_encode c) = Some c.
Proof.
  intros c HV. pose proof (is_scalar_le c HV) as Hmax.
  destruct (utf8_encode_cases c) as [H|H|H|H]; cbn [utf8_decode]; rewrite ?cont_mk.
  - rewrite (proj2 (N.leb_le c 127)) by lia. reflexivity.
  - rewrite between_intro by lia. cbn [andb]. f_equal. lia.
  - rewrite between_intro by lia. cbn [andb]. cbv zeta.
    replace ((224 + c / 4096 - 224) * 4096 + (128 + (c / 64) mod 64 - 128) * 64 + (128 + c mod 64 - 128)) with c by lia.
    rewrite (proj2 (N.leb_le 2048 c)), HV by lia. reflexivity.
  - rewrite between_intro by lia. cbn [andb]. cbv zeta.
    replace ((240 + c / 262144 - 240) * 262144 + (128 + (c / 4096) mod 64 - 128) * 4096
             + (128 + (c / 64) mod 64 - 128) * 64 + (128 + c mod 64 - 128)) with c by lia.
    rewrite (proj2 (N.leb_le 65536 c)), (proj2 (N.leb_le c 1114111)) by lia. reflexivity.
Qed.

(* turn every boolean comparison of a hypothesis into an arithmetic fact, dropping the impossible branches *)
Ltac split_bools H :=
  repeat match type of H with
         | context [?a <=? ?b] => destruct (N.leb_spec a b); cbn [andb orb negb] in H; try discriminate H
         | context [?a <? ?b] => destruct (N.ltb_spec a b); cbn [andb orb negb] in H; try discriminate H
         end.

(* the converse: whatever the decoder accepts is the encoder's output for a scalar value *)
Lemma utf8_decode_encode : forall bs c, utf8_decode bs = Some c -> is_scalar_value c = true /\ utf8_encode c = bs.
Proof.
  intros bs c H.
  destruct bs as [|b1 [|b2 [|b3 [|b4 [|b5 bs]]]]]; cbn [utf8_decode] in H; try discriminate; unfold continuation in H.
  - split_bools H. inversion H; subst c. split; [apply is_scalar_iff; lia|].
    destruct (utf8_encode_cases b1); [reflexivity|lia|lia|lia].
  - split_bools H. inversion H; subst c. set (c := (b1 - 192) * 64 + (b2 - 128)).
    assert (128 <= c < 2048) by (unfold c; lia). split; [apply is_scalar_iff; lia|].
    destruct (utf8_encode_cases c); try lia.
    f_equal; [unfold c; lia|]. f_equal. unfold c; lia.
  - cbv zeta in H. set (c0 := (b1 - 224) * 4096 + (b2 - 128) * 64 + (b3 - 128)) in *.
    destruct (is_scalar_value c0) eqn:HV.
    2:{ split_bools H. }
    split_bools H. inversion H; subst c. split; [exact HV|].
    assert (2048 <= c0 < 65536) by (unfold c0; lia).
    destruct (utf8_encode_cases c0); try lia.
    f_equal; [unfold c0; lia|]. f_equal; [unfold c0; lia|]. f_equal. unfold c0; lia.
  - cbv zeta in H. set (c0 := (b1 - 240) * 262144 + (b2 - 128) * 4096 + (b3 - 128) * 64 + (b4 - 128)) in *.
    split_bools H. inversion H; subst c. split; [apply is_scalar_iff; lia|].
    destruct (utf8_encode_cases c0); try lia.
    f_equal; [unfold c0; lia|]. f_equal; [unfold c0; lia|]. f_equal; [unfold c0; lia|]. f_equal. unfold c0; lia.
Qed.

(* STRICTNESS of the specification: a byte sequence decodes to c iff c is a Unicode scalar value and the
   sequence is its (unique, shortest-form) UTF-8 encoding *)
Theorem utf8_decode_strict : forall bs c,
  utf8_decode bs = Some c <-> (is_scalar_value c = true /\ bs = utf8_encode c).
Proof.
  intros bs c. split.
  - intros H. destruct (utf8_decode_encode _ _ H) as [H1 H2]. split; [exact H1|symmetry; exact H2].
  - intros [H1 ->]. apply utf8_round_trip. exact H1.
Qed.

Theorem utf8_decode_injective : forall bs1 bs2 c, utf8_decode bs1 = Some c -> utf8_decode bs2 = Some c -> bs1 = bs2.
Proof.
  intros bs1 bs2 c H1 H2. apply utf8_decode_encode in H1. apply utf8_decode_encode in H2.
  destruct H1 as [_ H1]. destruct H2 as [_ H2]. congruence.
Qed.

Theorem utf8_encode_injective : forall c1 c2,
  is_scalar_value c1 = true -> is_scalar_value c2 = true -> utf8_encode c1 = utf8_encode c2 -> c1 = c2.
Proof.
  intros c1 c2 H1 H2 E. apply utf8_round_trip in H1. apply utf8_round_trip in H2. rewrite E in H1. congruence.
Qed.

(* the length announced by the leading byte is the length of the encoding *)
Lemma utf8_decode_length : forall b bs c, utf8_decode (b :: bs) = Some c -> sequence_length b = Some (S (length bs)).
Proof.
  intros b bs c H.
  destruct bs as [|b2 [|b3 [|b4 [|b5 bs]]]]; cbn [utf8_decode] in H; try discriminate; unfold continuation in H;
    split_bools H; unfold sequence_length;
    repeat match goal with
           | |- context [?x <=? ?y] => destruct (N.leb_spec x y); cbn [andb]; try lia
           end; reflexivity.
Qed.

Lemma sequence_length_range : forall b k, sequence_length b = Some k -> (1 <= k <= 4)%nat.
Proof.
  intros b k H. unfold sequence_length in H.
  repeat match type of H with
         | (if ?c then _ else _) = _ => destruct c; [inversion H; lia|]
         end. discriminate.
Qed.

Lemma utf8_encode_bytes : forall c, c <= 1114111 -> Forall (fun b => b < 256) (utf8_encode c).
Proof. intros c H. destruct (utf8_encode_cases c); repeat constructor; lia. Qed.

Lemma utf8_encode_length : forall c, (1 <= length (utf8_encode c) <= 4)%nat.
Proof. intros c. destruct (utf8_encode_cases c); cbn [length]; lia. Qed.

(* escapes: [es] spells the bytes [bs] as %XY (hexadecimal digits of either case) *)
Inductive spells : list N -> list N -> Prop :=
| spells_nil : spells [] []
| spells_cons : forall x y hi lo es bs,
    hex_value x = Some hi -> hex_value y = Some lo -> spells es bs ->
    spells (37 :: x :: y :: es) ((hi * 16 + lo) :: bs).

Lemma spells_length : forall es bs, spells es bs -> length es = (3 * length bs)%nat.
Proof. intros es bs H. induction H; cbn [length]; lia. Qed.

Lemma spells_fun : forall es bs1, spells es bs1 -> forall bs2, spells es bs2 -> bs1 = bs2.
Proof.
  intros es bs1 H. induction H as [|x y hi lo es bs Hx Hy HS IH]; intros bs2 H2.
  - inversion H2. reflexivity.
  - inversion H2; subst. f_equal; [congruence|]. apply IH. assumption.
Qed.

(* the specification's reading of a hexadecimal digit against the generated char_traits tables *)
Lemma hex_value_model : forall x,
  match hex_value x with
  | Some d => is_hex x = true /\ as_hex x = d /\ d < 16
  | None => is_hex x = false
  end.
Proof.
  intros x. unfold hex_value, is_hex, as_hex.
  destruct (N.leb_spec 48 x); destruct (N.leb_spec x 57); cbn [andb orb];
  destruct (N.leb_spec 65 x); destruct (N.leb_spec x 70); cbn [andb orb];
  destruct (N.leb_spec 97 x); destruct (N.leb_spec x 102); cbn [andb orb];
  try reflexivity; repeat split; lia.
Qed.

Lemma take_escape_inv : forall l b r,
  take_escape l = Some (b, r) ->
  exists x y hi lo, l = 37 :: x :: y :: r /\ hex_value x = Some hi /\ hex_value y = Some lo /\ b = hi * 16 + lo /\ b < 256.
Proof.
  intros l b r H. unfold take_escape in H. destruct l as [|p [|x [|y l']]]; try discriminate.
  destruct (N.eqb_spec p percent) as [->|]; [|discriminate].
  destruct (hex_value x) as [hi|] eqn:Hx; [|discriminate]. destruct (hex_value y) as [lo|] eqn:Hy; [|discriminate].
  inversion H; subst. exists x, y, hi, lo. repeat split; try assumption.
  pose proof (hex_value_model x) as Mx. pose proof (hex_value_model y) as My. rewrite Hx in Mx. rewrite Hy in My. lia.
Qed.

Lemma take_escapes_spells : forall n l bs r,
  take_escapes n l = Some (bs, r) -> exists es, l = es ++ r /\ spells es bs /\ length bs = n.
Proof.
  induction n as [|n IH]; intros l bs r H; cbn [take_escapes] in H.
  - inversion H; subst. exists []. repeat split. constructor.
  - destruct (take_escape l) as [[b r1]|] eqn:E1; [|discriminate].
    destruct (take_escapes n r1) as [[bs1 r2]|] eqn:E2; [|discriminate]. inversion H; subst.
    destruct (IH _ _ _ E2) as [es [-> [HS HL]]].
    destruct (take_escape_inv _ _ _ E1) as [x [y [hi [lo [-> [Hx [Hy [-> _]]]]]]]].
    exists (37 :: x :: y :: es). split; [reflexivity|]. split; [|cbn [length]; congruence].
    apply spells_cons; assumption.
Qed.

Lemma spells_take_escapes : forall es bs rest, spells es bs -> take_escapes (length bs) (es ++ rest) = Some (bs, rest).
Proof.
  intros es bs rest H. induction H as [|x y hi lo es bs Hx Hy HS IH]; [reflexivity|].
  cbn [length take_escapes app take_escape]. change (37 =? percent) with true. cbv iota.
  rewrite Hx, Hy, IH. reflexivity.
Qed.

(* the specification's reader of one escaped character, in the words of [spells] and [utf8_decode] *)
Theorem take_escaped_char_spells : forall l c r,
  take_escaped_char l = Some (c, r) <-> exists es bs, l = es ++ r /\ spells es bs /\ utf8_decode bs = Some c.
Proof.
  intros l c r. split.
  - intros H. unfold take_escaped_char in H.
    destruct (take_escape l) as [[b r1]|] eqn:E1; [|discriminate].
    destruct (sequence_length b) as [[|n]|]; try discriminate.
    destruct (take_escapes n r1) as [[bs r2]|] eqn:E2; [|discriminate].
    destruct (utf8_decode (b :: bs)) as [c'|] eqn:ED; [|discriminate]. inversion H; subst c' r2.
    assert (E3 : take_escapes (S n) l = Some (b :: bs, r)) by (cbn [take_escapes]; rewrite E1, E2; reflexivity).
    destruct (take_escapes_spells _ _ _ _ E3) as [es [-> [HS HL]]]. exists es, (b :: bs). auto.
  - intros [es [bs [-> [HS HD]]]].
    destruct bs as [|b bs]; [discriminate|].
    pose proof (utf8_decode_length _ _ _ HD) as HL.
    pose proof (spells_take_escapes _ _ r HS) as HT. cbn [length take_escapes] in HT.
    unfold take_escaped_char.
    destruct (take_escape (es ++ r)) as [[b' r1]|]; [|discriminate].
    destruct (take_escapes (length bs) r1) as [[bs1 r2]|] eqn:E2; [|discriminate].
    inversion HT; subst. rewrite HL, E2, HD. reflexivity.
Qed.

(* the canonical spelling *)
Lemma hex_digit_value : forall d, d < 16 -> hex_value (hex_digit d) = Some d.
Proof.
  intros d H. unfold hex_digit, hex_value.
  destruct (N.ltb_spec d 10).
  - rewrite (proj2 (N.leb_le 48 (48 + d))) by lia. rewrite (proj2 (N.leb_le (48 + d) 57)) by lia.
    cbn [andb]. f_equal. lia.
  - rewrite (proj2 (N.leb_le 48 (55 + d))) by lia. rewrite (proj2 (N.leb_gt (55 + d) 57)) by lia.
    rewrite (proj2 (N.leb_le 65 (55 + d))) by lia. rewrite (proj2 (N.leb_le (55 + d) 70)) by lia.
    cbn [andb]. f_equal. lia.
Qed.

Lemma spells_escape_bytes : forall bs, Forall (fun b => b < 256) bs -> spells (flat_map escape_byte bs) bs.
Proof.
  induction bs as [|b bs IH]; intros H; [constructor|].
  inversion H as [|? ? Hb H']; subst. cbn [flat_map escape_byte app].
  replace b with ((b / 16) * 16 + b mod 16) at 3 by lia.
  apply spells_cons; [apply hex_digit_value; lia|apply hex_digit_value; lia|apply IH; exact H'].
Qed.

Lemma spells_percent_encode : forall c, is_scalar_value c = true -> spells (percent_encode c) (utf8_encode c).
Proof. intros c H. apply spells_escape_bytes. apply utf8_encode_bytes. apply is_scalar_le. exact H. Qed.

(* 2. The model's loop, one escape at a time *)
(* scan_uri_escapes is an anonymous loop applied to the fuel 5 (a sequence has at most 4 bytes); the same
   loop with a name, so that it can be unfolded one escape at a time *)
Section UriGo.
Variable mk : marker.
Fixpoint uri_go (f : nat) (width : N) (len : N) (code : N) (first : bool) : @M strin chr :=
     match f with
     | O => oof
     | S f =>
       look str_ops 3 ;;; c0 <- peek str_ops ;; c <- peekn str_ops 1 ;; nc <- peekn str_ops 2 ;;
       if negb ((c0 =? 37) && is_hex c && is_hex nc) then fail 50 mk else
       let byte := as_hex c * 16 + as_hex nc in
       r <- (if first then
               if N.land byte 128 =? 0 then ret (1, byte)
               else if N.land byte 224 =? 192 then ret (2, N.land byte 31)
               else if N.land byte 240 =? 224 then ret (3, N.land byte 15)
               else if N.land byte 248 =? 240 then ret (4, N.land byte 7)
               else fail 51 mk
             else if negb (N.land byte 192 =? 128) then fail 52 mk
             else ret (width, code * 64 + N.land byte 63)) ;;
       let '(w, cd) := r in
       let len := if first then w else len in
       skip_n_non_blank str_ops 3 ;;;
       if w - 1 =? 0 then
         (if ((cd <? 55296) || ((57343 <? cd) && (cd <=? 1114111))) && (len_utf8 cd =? len) then ret cd else fail 53 mk)
       else uri_go f (w - 1) len cd false
     end.
End UriGo.

Lemma scan_uri_escapes_go : forall mk, scan_uri_escapes str_ops mk = uri_go mk 5 0 0 0 true.
Proof. reflexivity. Qed.

(* the scanner state after consuming n characters that are not blanks or breaks *)
Definition eat (n : nat) (s : sc strin) : sc strin :=
  set_lws false (set_mark (adv (N.of_nat n) (sc_mark s))
    (set_in {| si_chars := skipn n (si_chars (sc_in s)); si_look := Nat.max (si_look (sc_in s)) 3 |} s)).
Fixpoint eats (n : nat) (s : sc strin) : sc strin := match n with O => s | S n => eats n (eat 3 s) end.

(* how the model reads one escape and its leading byte *)
Definition model_escape (l : list chr) : option N :=
  if (@nth chr 0 l 0 =? 37) && is_hex (@nth chr 1 l 0) && is_hex (@nth chr 2 l 0)
  then Some (as_hex (@nth chr 1 l 0) * 16 + as_hex (@nth chr 2 l 0)) else None.
Definition lead_model (byte : N) : option (N * N) :=
  if N.land byte 128 =? 0 then Some (1, byte)
  else if N.land byte 224 =? 192 then Some (2, N.land byte 31)
  else if N.land byte 240 =? 224 then Some (3, N.land byte 15)
  else if N.land byte 248 =? 240 then Some (4, N.land byte 7)
  else None.
Definition scalar_test (cd : N) : bool := (cd <? 55296) || ((57343 <? cd) && (cd <=? 1114111)).

(* what is left to do after an escape: [w] continuation escapes, then the test of the code point *)
Definition uri_rest (mk : marker) (f : nat) (w len cd : N) (s : sc strin) : outcome (chr * sc strin) :=
  if w =? 0 then (if scalar_test cd && (len_utf8 cd =? len) then SBase.Ok (cd, s) else SBase.Err 53 mk)
  else uri_go mk f w len cd false s.

Lemma go_step : forall mk f width len code first s,
  uri_go mk (S f) width len code first s =
  match model_escape (si_chars (sc_in s)) with
  | None => SBase.Err 50 mk
  | Some byte =>
    match (if first then lead_model byte
           else if negb (N.land byte 192 =? 128) then None else Some (width, code * 64 + N.land byte 63)) with
    | None => SBase.Err (if first then 51 else 52) mk
    | Some (w, cd) => uri_rest mk f (w - 1) (if first then w else len) cd (eat 3 s)
    end
  end.
Proof.
  intros mk f width len code first s. unfold uri_rest.
  destruct s as [inp mark toks ss se adj ska sks ind inds fl tp ta lws ifms].
  destruct inp as [chars lk].
  cbn [uri_go].
  cbv [bind look peek peekn lookahead peek_nth str_ops sc_in set_in upd si_chars si_look model_escape].
  destruct ((nth 0 chars 0 =? 37) && is_hex (nth 1 chars 0) && is_hex (nth 2 chars 0)); cbv [negb]; [|reflexivity].
  cbv zeta.
  cbv [skip_n_non_blank in_skip_n skip_n adv_mark modify bind str_ops sc_in set_in upd si_chars si_look ret fail eat
       lead_model scalar_test].
  (* [if] applied to the state on one side, [if] of the two results on the other *)
  destruct first.
  - destruct (N.land _ 128 =? 0); [destruct ((_ || _) && _); reflexivity|]. destruct (N.land _ 224 =? 192); [reflexivity|].
    destruct (N.land _ 240 =? 224); [reflexivity|]. destruct (N.land _ 248 =? 240); reflexivity.
  - destruct (N.land _ 192 =? 128); [|reflexivity]. destruct (_ - 1 =? 0); [destruct ((_ || _) && _)|]; reflexivity.
Qed.

(* finite facts about bytes, by exhaustive evaluation over 0..255 *)
Fixpoint below (n : nat) (f : N -> bool) : bool :=
  match n with O => true | S n => f (N.of_nat n) && below n f end.
Lemma below_spec : forall n f, below n f = true -> forall x, x < N.of_nat n -> f x = true.
Proof.
  induction n as [|n IH]; intros f H x Hx; [lia|].
  cbn [below] in H. apply andb_true_iff in H. destruct H as [H1 H2].
  destruct (N.eq_dec x (N.of_nat n)) as [->|Hne]; [exact H1|].
  apply IH; [exact H2|lia].
Qed.

(* the bit tests of the model, arithmetically *)
Definition lead_arith (b : N) : option (N * N) :=
  if b <=? 127 then Some (1, b)
  else if b <=? 191 then None
  else if b <=? 223 then Some (2, b - 192)
  else if b <=? 239 then Some (3, b - 224)
  else if b <=? 247 then Some (4, b - 240)
  else None.
Definition opt_eqb (a b : option (N * N)) : bool :=
  match a, b with
  | None, None => true
  | Some (x, y), Some (u, v) => (x =? u) && (y =? v)
  | _, _ => false
  end.
Lemma opt_eqb_eq : forall a b, opt_eqb a b = true -> a = b.
Proof.
  intros [[x y]|] [[u v]|] H; cbn [opt_eqb] in H; try discriminate; [|reflexivity].
  apply andb_true_iff in H. destruct H as [H1 H2]. apply N.eqb_eq in H1. apply N.eqb_eq in H2. congruence.
Qed.
Lemma lead_model_arith : forall b, b < 256 -> lead_model b = lead_arith b.
Proof.
  intros b H. apply opt_eqb_eq. revert b H.
  apply (below_spec 256 (fun b => opt_eqb (lead_model b) (lead_arith b))). vm_compute. reflexivity.
Qed.
Definition cont_check (b : N) : bool :=
  Bool.eqb (N.land b 192 =? 128) (continuation b) && (if continuation b then N.land b 63 =? b - 128 else true).
Lemma cont_model : forall b, b < 256 ->
  (N.land b 192 =? 128) = continuation b /\ (continuation b = true -> N.land b 63 = b - 128).
Proof.
  intros b H. assert (C : cont_check b = true) by (revert b H; apply (below_spec 256); vm_compute; reflexivity).
  unfold cont_check in C. apply andb_true_iff in C. destruct C as [C1 C2]. apply Bool.eqb_prop in C1.
  split; [exact C1|]. intros HC. rewrite HC in C2. apply N.eqb_eq in C2. exact C2.
Qed.

Lemma is_hex_0 : is_hex 0 = false.
Proof. reflexivity. Qed.

(* the model reads an escape exactly where the specification does, and reads the same byte *)
Lemma model_escape_spec : forall l, model_escape l = option_map fst (take_escape l).
Proof.
  intros l. unfold model_escape, take_escape.
  destruct l as [|p [|x [|y r]]]; cbn [nth].
  - reflexivity.
  - rewrite is_hex_0, andb_false_r. reflexivity.
  - rewrite is_hex_0, andb_false_r. reflexivity.
  - unfold percent. destruct (p =? 37); cbn [andb]; [|reflexivity].
    pose proof (hex_value_model x) as Mx. pose proof (hex_value_model y) as My.
    destruct (hex_value x) as [hi|]; [destruct Mx as (-> & -> & _)|rewrite Mx; reflexivity]. cbn [andb].
    destruct (hex_value y) as [lo|]; [destruct My as (-> & -> & _)|rewrite My]; reflexivity.
Qed.

Lemma eat_chars_skipn : forall s, si_chars (sc_in (eat 3 s)) = @skipn N 3 (si_chars (sc_in s)).
Proof. reflexivity. Qed.

Lemma take_escape_rest : forall l b r, take_escape l = Some (b, r) -> r = skipn 3 l.
Proof. intros l b r H. destruct (take_escape_inv _ _ _ H) as [x [y [hi [lo [-> _]]]]]. reflexivity. Qed.

(* the first escape of a character *)
Lemma go_first : forall mk f s,
  uri_go mk (S f) 0 0 0 true s =
  match take_escape (si_chars (sc_in s)) with
  | None => SBase.Err 50 mk
  | Some (b, _) =>
      match lead_arith b with
      | None => SBase.Err 51 mk
      | Some (w, cd) => uri_rest mk f (w - 1) w cd (eat 3 s)
      end
  end.
Proof.
  intros mk f s. rewrite go_step, model_escape_spec.
  destruct (take_escape (si_chars (sc_in s))) as [[b r]|] eqn:E; cbn [option_map fst]; [|reflexivity].
  destruct (take_escape_inv _ _ _ E) as [_ [_ [_ [_ [_ [_ [_ [_ Hb]]]]]]]].
  rewrite (lead_model_arith b Hb). reflexivity.
Qed.

(* a continuation escape *)
Lemma go_cont : forall mk f w len code s,
  uri_go mk (S f) w len code false s =
  match take_escape (si_chars (sc_in s)) with
  | None => SBase.Err 50 mk
  | Some (b, _) =>
      if continuation b then uri_rest mk f (w - 1) len (code * 64 + (b - 128)) (eat 3 s) else SBase.Err 52 mk
  end.
Proof.
  intros mk f w len code s. rewrite go_step, model_escape_spec.
  destruct (take_escape (si_chars (sc_in s))) as [[b r]|] eqn:E; cbn [option_map fst]; [|reflexivity].
  destruct (take_escape_inv _ _ _ E) as [_ [_ [_ [_ [_ [_ [_ [_ Hb]]]]]]]].
  destruct (cont_model b Hb) as [C1 C2]. rewrite C1.
  destruct (continuation b) eqn:EC; cbn [negb]; [|reflexivity].
  rewrite (C2 eq_refl). reflexivity.
Qed.

(* 3. The model equals the specification's reader on every input *)
(* the number of escapes the leading escape of a text announces *)
Definition escaped_len (l : list N) : nat :=
  match take_escape l with
  | Some (b, _) => match sequence_length b with Some n => n | None => 0 end
  | None => 0
  end.

Definition uri_error (o : outcome (chr * sc strin)) (mk : marker) : Prop :=
  exists site, o = SBase.Err site mk /\ 50 <= site <= 53.

Lemma uri_error_intro : forall site mk, 50 <= site <= 53 -> uri_error (SBase.Err site mk) mk.
Proof. intros site mk H. exists site. split; [reflexivity|exact H]. Qed.

Definition exact_post (mk : marker) (s : sc strin) (o : outcome (chr * sc strin)) : Prop :=
  let l : list N := si_chars (sc_in s) in
  match take_escaped_char l with
  | Some (c, r) => o = SBase.Ok (c, eats (escaped_len l) s) /\ r = skipn (3 * escaped_len l) l
  | None => uri_error o mk
  end.

(* the final test of the model (a scalar value, needing all the bytes that were given) against the range
   conditions of the specification *)
Lemma final1 : forall b, b <= 127 -> scalar_test b && (len_utf8 b =? 1) = true.
Proof.
  intros b H. unfold scalar_test, len_utf8.
  rewrite (proj2 (N.ltb_lt b 55296)) by lia. rewrite (proj2 (N.ltb_lt b 128)) by lia. reflexivity.
Qed.

Lemma final2 : forall b1 b2, 192 <= b1 <= 223 -> continuation b2 = true ->
  scalar_test ((b1 - 192) * 64 + (b2 - 128)) && (len_utf8 ((b1 - 192) * 64 + (b2 - 128)) =? 2) = (194 <=? b1).
Proof.
  intros b1 b2 H1 H2. apply between_iff in H2. set (cd := (b1 - 192) * 64 + (b2 - 128)).
  assert (Hcd : cd < 2048) by (unfold cd; lia).
  unfold scalar_test, len_utf8. rewrite (proj2 (N.ltb_lt cd 55296)) by lia. cbn [orb andb].
  rewrite (proj2 (N.ltb_lt cd 2048)) by lia.
  destruct (N.leb_spec 194 b1).
  - rewrite (proj2 (N.ltb_ge cd 128)) by (unfold cd; lia). reflexivity.
  - rewrite (proj2 (N.ltb_lt cd 128)) by (unfold cd; lia). reflexivity.
Qed.

Lemma final3 : forall b1 b2 b3, 224 <= b1 <= 239 -> continuation b2 = true -> continuation b3 = true ->
  ((b1 - 224) * 64 + (b2 - 128)) * 64 + (b3 - 128) = (b1 - 224) * 4096 + (b2 - 128) * 64 + (b3 - 128) /\
  forall cd, cd = (b1 - 224) * 4096 + (b2 - 128) * 64 + (b3 - 128) ->
  scalar_test cd && (len_utf8 cd =? 3) = (2048 <=? cd) && is_scalar_value cd.
Proof.
  intros b1 b2 b3 H1 H2 H3. apply between_iff in H2. apply between_iff in H3.
  split; [lia|]. intros cd Hcd. assert (cd < 65536) by lia.
  unfold is_scalar_value, scalar_test, len_utf8.
  rewrite (proj2 (N.ltb_lt cd 65536)) by lia.
  destruct (N.leb_spec 2048 cd).
  - rewrite (proj2 (N.ltb_ge cd 128)) by lia. rewrite (proj2 (N.ltb_ge cd 2048)) by lia.
    cbn [andb]. rewrite andb_true_r. reflexivity.
  - destruct (cd <? 128); [|rewrite (proj2 (N.ltb_lt cd 2048)) by lia]; rewrite andb_false_r; reflexivity.
Qed.

Lemma final4 : forall b1 b2 b3 b4, 240 <= b1 <= 247 ->
  continuation b2 = true -> continuation b3 = true -> continuation b4 = true ->
  (((b1 - 240) * 64 + (b2 - 128)) * 64 + (b3 - 128)) * 64 + (b4 - 128)
    = (b1 - 240) * 262144 + (b2 - 128) * 4096 + (b3 - 128) * 64 + (b4 - 128) /\
  forall cd, cd = (b1 - 240) * 262144 + (b2 - 128) * 4096 + (b3 - 128) * 64 + (b4 - 128) ->
  scalar_test cd && (len_utf8 cd =? 4) = (b1 <=? 244) && ((65536 <=? cd) && (cd <=? 1114111)).
Proof.
  intros b1 b2 b3 b4 H1 H2 H3 H4.
  apply between_iff in H2. apply between_iff in H3. apply between_iff in H4.
  split; [lia|]. intros cd Hcd.
  unfold scalar_test, len_utf8.
  destruct (N.leb_spec b1 244); cbn [andb].
  - destruct (N.leb_spec 65536 cd); cbn [andb].
    + rewrite (proj2 (N.ltb_ge cd 55296)) by lia. rewrite (proj2 (N.ltb_lt 57343 cd)) by lia.
      rewrite (proj2 (N.ltb_ge cd 128)) by lia. rewrite (proj2 (N.ltb_ge cd 2048)) by lia.
      rewrite (proj2 (N.ltb_ge cd 65536)) by lia. cbn [orb andb]. rewrite andb_true_r. reflexivity.
    + rewrite (proj2 (N.ltb_lt cd 65536)) by lia.
      destruct (cd <? 128); [|destruct (cd <? 2048)]; rewrite andb_false_r; reflexivity.
  - assert (1114111 < cd) by lia.
    rewrite (proj2 (N.ltb_ge cd 55296)) by lia. rewrite (proj2 (N.leb_gt cd 1114111)) by lia.
    rewrite andb_false_r. reflexivity.
Qed.

Definition cont_fold (code : N) (bs : list N) : N := fold_left (fun cd b => cd * 64 + (b - 128)) bs code.

Lemma utf8_decode_fold : forall b1 bs w cd0, lead_arith b1 = Some (w, cd0) -> w = N.of_nat (S (length bs)) ->
  utf8_decode (b1 :: bs)
  = if forallb continuation bs && (scalar_test (cont_fold cd0 bs) && (len_utf8 (cont_fold cd0 bs) =? w))
    then Some (cont_fold cd0 bs) else None.
Proof.
  intros b1 bs w cd0 HL Hw. unfold lead_arith in HL. unfold cont_fold.
  destruct (N.leb_spec b1 127) as [L1|L1].
  { injection HL as <- <-. destruct bs as [|b2 bs]; [|cbn [length] in Hw; lia].
    cbn [utf8_decode forallb fold_left andb]. rewrite (final1 b1 L1), (proj2 (N.leb_le b1 127) L1). reflexivity. }
  destruct (N.leb_spec b1 191) as [L2|L2]; [discriminate|].
  destruct (N.leb_spec b1 223) as [L3|L3].
  { injection HL as <- <-. destruct bs as [|b2 [|b3 bs]]; try (cbn [length] in Hw; lia).
    cbn [utf8_decode forallb fold_left]. rewrite andb_true_r.
    destruct (continuation b2) eqn:C2; [|rewrite andb_false_r; reflexivity].
    rewrite (final2 b1 b2 ltac:(lia) C2), (proj2 (N.leb_le b1 223) L3), !andb_true_r. reflexivity. }
  destruct (N.leb_spec b1 239) as [L4|L4].
  { injection HL as <- <-. destruct bs as [|b2 [|b3 [|b4 bs]]]; try (cbn [length] in Hw; lia).
    cbn [utf8_decode forallb fold_left]. rewrite andb_true_r, (between_intro 224 239 b1) by lia. cbn [andb].
    destruct (continuation b2) eqn:C2; [|reflexivity]. destruct (continuation b3) eqn:C3; [|reflexivity].
    cbn [andb]. cbv zeta. destruct (final3 b1 b2 b3 ltac:(lia) C2 C3) as [EQ FIN]. rewrite EQ, (FIN _ eq_refl).
    reflexivity. }
  destruct (N.leb_spec b1 247) as [L5|L5]; [|discriminate].
  injection HL as <- <-. destruct bs as [|b2 [|b3 [|b4 [|b5 bs]]]]; try (cbn [length] in Hw; lia).
  cbn [utf8_decode forallb fold_left]. rewrite andb_true_r, (proj2 (N.leb_le 240 b1)) by lia. cbn [andb].
  destruct (continuation b2) eqn:C2; [|rewrite andb_false_r; reflexivity].
  destruct (continuation b3) eqn:C3; [|rewrite andb_false_r; reflexivity].
  destruct (continuation b4) eqn:C4; [|rewrite andb_false_r; reflexivity].
  rewrite !andb_true_r. cbn [andb]. cbv zeta.
  destruct (final4 b1 b2 b3 b4 ltac:(lia) C2 C3 C4) as [EQ FIN]. rewrite EQ, (FIN _ eq_refl).
  destruct (b1 <=? 244); reflexivity.
Qed.

Lemma lead_arith_length : forall b, option_map fst (lead_arith b) = option_map N.of_nat (sequence_length b).
Proof.
  intros b. unfold lead_arith, sequence_length.
  destruct (N.leb_spec b 127); [reflexivity|].
  destruct (N.leb_spec b 191).
  { rewrite (proj2 (N.leb_gt 192 b)), (proj2 (N.leb_gt 224 b)), (proj2 (N.leb_gt 240 b)) by lia. reflexivity. }
  rewrite (proj2 (N.leb_le 192 b)) by lia. destruct (N.leb_spec b 223); [reflexivity|]. cbn [andb].
  rewrite (proj2 (N.leb_le 224 b)) by lia. destruct (N.leb_spec b 239); [reflexivity|]. cbn [andb].
  rewrite (proj2 (N.leb_le 240 b)) by lia. destruct (N.leb_spec b 247); reflexivity.
Qed.

(* the continuation escapes: the model reads [n] of them exactly where the specification does, and rejects the first
   that is not a continuation byte *)
Definition rest_post (mk : marker) (n : nat) (len code : N) (s : sc strin) (o : outcome (chr * sc strin)) : Prop :=
  let l : list N := si_chars (sc_in s) in
  match take_escapes n l with
  | Some (bs, r) =>
      if forallb continuation bs then
        o = (if scalar_test (cont_fold code bs) && (len_utf8 (cont_fold code bs) =? len)
             then SBase.Ok (cont_fold code bs, eats n s) else SBase.Err 53 mk)
        /\ r = skipn (3 * n) l
      else uri_error o mk
  | None => uri_error o mk
  end.

Lemma uri_rest_spec : forall n mk f len code s, (n <= f)%nat ->
  rest_post mk n len code s (uri_rest mk f (N.of_nat n) len code s).
Proof.
  induction n as [|n IH]; intros mk f len code s Hf; unfold rest_post, uri_rest; cbv zeta.
  - split; reflexivity.
  - destruct f as [|f]; [lia|].
    rewrite (proj2 (N.eqb_neq (N.of_nat (S n)) 0)) by lia. rewrite go_cont. cbn [take_escapes].
    destruct (take_escape (si_chars (sc_in s))) as [[b r1]|] eqn:E1; [|apply uri_error_intro; lia].
    pose proof (take_escape_rest _ _ _ E1) as R1.
    destruct (continuation b) eqn:C.
    2:{ destruct (take_escapes n r1) as [[bs r]|]; [cbn [forallb]; rewrite C|]; apply uri_error_intro; lia. }
    replace (N.of_nat (S n) - 1) with (N.of_nat n) by lia.
    specialize (IH mk f len (code * 64 + (b - 128)) (eat 3 s) ltac:(lia)). unfold rest_post in IH. cbv zeta in IH.
    rewrite eat_chars_skipn, <- R1 in IH.
    destruct (take_escapes n r1) as [[bs r]|]; [|exact IH].
    cbn [forallb]. rewrite C. cbn [andb]. destruct (forallb continuation bs); [|exact IH].
    destruct IH as [IH1 IH2]. split; [exact IH1|]. rewrite IH2, R1, skipn_add. f_equal. lia.
Qed.

(* THE theorem of this file *)
Theorem scan_uri_escapes_exact : forall mk s, exact_post mk s (scan_uri_escapes str_ops mk s).
Proof.
  intros mk s. unfold exact_post. rewrite scan_uri_escapes_go, go_first.
  unfold take_escaped_char, escaped_len.
  destruct (take_escape (si_chars (sc_in s))) as [[b1 r1]|] eqn:E1; [|apply uri_error_intro; lia].
  pose proof (take_escape_rest _ _ _ E1) as R1.
  pose proof (lead_arith_length b1) as HL.
  destruct (lead_arith b1) as [[w cd0]|] eqn:EL; destruct (sequence_length b1) as [k|] eqn:ES;
    cbn [option_map fst] in HL; try discriminate; [|apply uri_error_intro; lia].
  inversion HL; subst w. clear HL.
  pose proof (sequence_length_range _ _ ES) as Hk. destruct k as [|n]; [lia|].
  replace (N.of_nat (S n) - 1) with (N.of_nat n) by lia.
  pose proof (uri_rest_spec n mk 4 (N.of_nat (S n)) cd0 (eat 3 s) ltac:(lia)) as X.
  unfold rest_post in X. cbv zeta in X. rewrite eat_chars_skipn, <- R1 in X.
  destruct (take_escapes n r1) as [[bs r]|] eqn:E2; [|exact X].
  destruct (take_escapes_spells _ _ _ _ E2) as (es & _ & _ & Hlen).
  rewrite (utf8_decode_fold b1 bs _ cd0 EL) by (rewrite Hlen; reflexivity).
  destruct (forallb continuation bs); cbn [andb]; [|exact X]. destruct X as [X1 X2]. rewrite X1.
  destruct (scalar_test _ && _); [|apply uri_error_intro; lia].
  split; [reflexivity|]. rewrite X2, R1, skipn_add. f_equal. lia.
Qed.

(* what "consumed" means *)
Lemma eat_chars : forall s a b c r, si_chars (sc_in s) = a :: b :: c :: r -> si_chars (sc_in (eat 3 s)) = r.
Proof. intros s a b c r H. cbn [eat set_lws set_flags set_mark set_in upd sc_in si_chars]. rewrite H. reflexivity. Qed.

Lemma eats_chars : forall n s, si_chars (sc_in (eats n s)) = @skipn N (3 * n) (si_chars (sc_in s)).
Proof.
  induction n as [|n IH]; intros s; [reflexivity|].
  cbn [eats]. rewrite IH. cbn [eat set_lws set_flags set_mark set_in upd sc_in si_chars].
  rewrite skipn_add. f_equal. lia.
Qed.

Lemma eats_mark : forall n s, sc_mark (eats n s) = adv (N.of_nat (3 * n)) (sc_mark s).
Proof.
  induction n as [|n IH]; intros s.
  - cbn [eats]. unfold adv. destruct (sc_mark s) as [i l c]. cbn. rewrite !N.add_0_r. reflexivity.
  - cbn [eats]. rewrite IH. cbn [eat set_lws set_flags set_mark set_in upd sc_mark]. unfold adv. cbn [m_index m_line m_col].
    f_equal; lia.
Qed.

Lemma eats_consumed : forall n s,
  si_chars (sc_in (eats n s)) = @skipn N (3 * n) (si_chars (sc_in s)) /\
  sc_mark (eats n s) = adv (N.of_nat (3 * n)) (sc_mark s).
Proof. intros n s. exact (conj (eats_chars n s) (eats_mark n s)). Qed.

Lemma eats_inj : forall n m s, eats n s = eats m s -> n = m.
Proof.
  intros n m s H. apply (f_equal sc_mark) in H. rewrite !eats_mark in H.
  apply (f_equal m_index) in H. unfold adv in H. cbn [m_index] in H. lia.
Qed.

(* everything else about the scanner state is untouched, except that the last character was not a blank *)
Lemma eats_other : forall n s, (0 < n)%nat ->
  sc_tokens (eats n s) = sc_tokens s /\ sc_stream_start (eats n s) = sc_stream_start s /\
  sc_stream_end (eats n s) = sc_stream_end s /\ sc_adjacent (eats n s) = sc_adjacent s /\
  sc_ska (eats n s) = sc_ska s /\ sc_sks (eats n s) = sc_sks s /\ sc_indent (eats n s) = sc_indent s /\
  sc_indents (eats n s) = sc_indents s /\ sc_flow_level (eats n s) = sc_flow_level s /\
  sc_tokens_parsed (eats n s) = sc_tokens_parsed s /\ sc_token_available (eats n s) = sc_token_available s /\
  sc_lws (eats n s) = false /\ sc_ifms (eats n s) = sc_ifms s.
Proof.
  induction n as [|n IH]; intros s Hn; [lia|].
  destruct n as [|n].
  - cbn [eats]. repeat split.
  - cbn [eats] in *. specialize (IH (eat 3 s) ltac:(lia)).
    destruct IH as [H1 [H2 [H3 [H4 [H5 [H6 [H7 [H8 [H9 [H10 [H11 [H12 H13]]]]]]]]]]]].
    rewrite H1, H2, H3, H4, H5, H6, H7, H8, H9, H10, H11, H12, H13. repeat split.
Qed.

(* consequences of exactness *)
(* soundness: whatever the model accepts, the specification reads, and the model consumed exactly that *)
Theorem scan_uri_escapes_sound : forall mk s c s',
  scan_uri_escapes str_ops mk s = SBase.Ok (c, s') ->
  take_escaped_char (si_chars (sc_in s)) = Some (c, si_chars (sc_in s')) /\
  s' = eats (escaped_len (si_chars (sc_in s))) s.
Proof.
  intros mk s c s' H. pose proof (scan_uri_escapes_exact mk s) as X. unfold exact_post in X. cbv zeta in X.
  destruct (take_escaped_char (si_chars (sc_in s))) as [[c0 r]|].
  - destruct X as [X1 X2]. rewrite X1 in H. inversion H; subst c0 s'. split; [|reflexivity].
    rewrite eats_chars, <- X2. reflexivity.
  - destruct X as [site [X _]]. rewrite X in H. discriminate.
Qed.

(* totality: a character or one of the four scanner errors at the given mark; never out of fuel, never a panic *)
Theorem scan_uri_escapes_total : forall mk s,
  (exists c n, (1 <= n <= 4)%nat /\ scan_uri_escapes str_ops mk s = SBase.Ok (c, eats n s)) \/
  uri_error (scan_uri_escapes str_ops mk s) mk.
Proof.
  intros mk s. pose proof (scan_uri_escapes_exact mk s) as X. unfold exact_post in X. cbv zeta in X.
  destruct (take_escaped_char (si_chars (sc_in s))) as [[c0 r]|] eqn:E; [|right; exact X].
  left. destruct X as [X1 _]. exists c0, (escaped_len (si_chars (sc_in s))). split; [|exact X1].
  unfold take_escaped_char, escaped_len in *.
  destruct (take_escape (si_chars (sc_in s))) as [[b r1]|]; [|discriminate].
  destruct (sequence_length b) as [k|] eqn:ES; [|discriminate]. exact (sequence_length_range _ _ ES).
Qed.

Lemma escaped_len_spells : forall es b bs c rest,
  spells es (b :: bs) -> utf8_decode (b :: bs) = Some c -> escaped_len (es ++ rest) = S (length bs).
Proof.
  intros es b bs c rest HS HD. pose proof (spells_take_escapes _ _ rest HS) as HT.
  cbn [length take_escapes] in HT. unfold escaped_len.
  destruct (take_escape (es ++ rest)) as [[b' r1]|]; [|discriminate].
  destruct (take_escapes (length bs) r1) as [[bs1 r2]|]; [|discriminate].
  inversion HT; subst. rewrite (utf8_decode_length _ _ _ HD). reflexivity.
Qed.

(* completeness: whenever the RFC 3629 decoder of the specification accepts a byte sequence, the scanner model,
   reading those bytes written as escapes (in either case of the hex digits, followed by anything), returns the
   same character and has consumed exactly the 3n characters of the escapes. *)
Theorem scan_uri_escapes_decodes : forall bs c es rest mk s,
  utf8_decode bs = Some c -> spells es bs -> si_chars (sc_in s) = es ++ rest ->
  scan_uri_escapes str_ops mk s = SBase.Ok (c, eats (length bs) s).
Proof.
  intros bs c es rest mk s HD HS HC.
  pose proof (scan_uri_escapes_exact mk s) as X. unfold exact_post in X. cbv zeta in X. rewrite HC in X.
  assert (HT : take_escaped_char (es ++ rest) = Some (c, rest)).
  { apply take_escaped_char_spells. exists es, bs. auto. }
  rewrite HT in X. destruct X as [X _]. rewrite X.
  destruct bs as [|b bs]; [discriminate|]. rewrite (escaped_len_spells _ _ _ _ rest HS HD). reflexivity.
Qed.

(* For EVERY Unicode scalar value: its percent-encoded UTF-8 form is decoded back to it. *)
Theorem scan_uri_escapes_round_trip : forall c rest mk s,
  is_scalar_value c = true -> si_chars (sc_in s) = percent_encode c ++ rest ->
  scan_uri_escapes str_ops mk s = SBase.Ok (c, eats (length (utf8_encode c)) s).
Proof.
  intros c rest mk s HV HC.
  eapply scan_uri_escapes_decodes; [apply utf8_round_trip; exact HV| |exact HC].
  apply spells_percent_encode. exact HV.
Qed.

(* the text-level reader of the specification ([percent_decode] reads characters with [take_escaped_char]) *)
Theorem scan_uri_escapes_meets_spec : forall l c r mk s,
  take_escaped_char l = Some (c, r) -> si_chars (sc_in s) = l ->
  exists s', scan_uri_escapes str_ops mk s = SBase.Ok (c, s') /\ si_chars (sc_in s') = r
             /\ exists n, sc_mark s' = adv (N.of_nat (3 * n)) (sc_mark s) /\ (length l = 3 * n + length r)%nat.
Proof.
  intros l c r mk s H HC.
  destruct (proj1 (take_escaped_char_spells _ _ _) H) as [es [bs [-> [HS HD]]]].
  exists (eats (length bs) s). split; [eapply scan_uri_escapes_decodes; eassumption|].
  rewrite eats_chars, HC. split.
  - rewrite <- (spells_length _ _ HS). rewrite skipn_app, skipn_all, Nat.sub_diag. reflexivity.
  - exists (length bs). split; [apply eats_mark|].
    rewrite app_length, (spells_length _ _ HS). reflexivity.
Qed.

(* STRICT DECODING, byte level, both directions: the escapes of a byte sequence (followed by anything) are accepted
   as a whole iff the sequence is the UTF-8 encoding of a Unicode scalar value — and the result is that value *)
Theorem scan_uri_escapes_strict : forall es bs rest mk s c,
  spells es bs -> si_chars (sc_in s) = es ++ rest ->
  (scan_uri_escapes str_ops mk s = SBase.Ok (c, eats (length bs) s)
   <-> (is_scalar_value c = true /\ bs = utf8_encode c)).
Proof.
  intros es bs rest mk s c HS HC. rewrite <- utf8_decode_strict. split.
  - intros H. destruct (scan_uri_escapes_sound _ _ _ _ H) as [H1 H2].
    rewrite eats_chars, HC, <- (spells_length _ _ HS), skipn_app, skipn_all, Nat.sub_diag in H1. cbn [skipn app] in H1.
    destruct (proj1 (take_escaped_char_spells _ _ _) H1) as [es' [bs' [E [HS' HD]]]].
    apply app_inv_tail in E. subst es'. rewrite (spells_fun _ _ HS _ HS'). exact HD.
  - intros HD. eapply scan_uri_escapes_decodes; eassumption.
Qed.

(* ... and "error otherwise": if no prefix of the byte sequence is such an encoding (and no further escape
   follows it), the model reports an error *)
Lemma spells_prefix : forall es bs, spells es bs -> forall es' bs' rest r,
  spells es' bs' -> es ++ rest = es' ++ r -> take_escape rest = None -> exists k, bs' = firstn k bs.
Proof.
  intros es bs H. induction H as [|x y hi lo es bs Hx Hy HS IH]; intros es' bs' rest r H' E HN.
  - cbn [app] in E. inversion H' as [|x' y' hi' lo' es'' bs'' Hx' Hy' HS']; subst; [exists 0%nat; reflexivity|].
    cbn [app] in HN. unfold take_escape in HN. change (37 =? percent) with true in HN. cbv iota in HN.
    rewrite Hx', Hy' in HN. discriminate.
  - inversion H' as [|x' y' hi' lo' es'' bs'' Hx' Hy' HS']; subst; [exists 0%nat; reflexivity|].
    cbn [app] in E. inversion E; subst x' y'.
    match goal with E0 : es ++ rest = es'' ++ r |- _ => destruct (IH _ _ _ _ HS' E0 HN) as [k Hk] end.
    exists (S k). cbn [firstn]. f_equal; congruence.
Qed.

Theorem scan_uri_escapes_rejects : forall es bs rest mk s,
  spells es bs -> si_chars (sc_in s) = es ++ rest -> take_escape rest = None ->
  (forall k, utf8_decode (firstn k bs) = None) ->
  uri_error (scan_uri_escapes str_ops mk s) mk.
Proof.
  intros es bs rest mk s HS HC HN HK.
  pose proof (scan_uri_escapes_exact mk s) as X. unfold exact_post in X. cbv zeta in X. rewrite HC in X.
  destruct (take_escaped_char (es ++ rest)) as [[c r]|] eqn:E; [|exact X].
  destruct (proj1 (take_escaped_char_spells _ _ _) E) as [es' [bs' [E' [HS' HD]]]].
  destruct (spells_prefix _ _ HS _ _ _ _ HS' E' HN) as [k Hk]. rewrite Hk, HK in HD. discriminate.
Qed.

(* the three witnesses of the former finding (commit 990db80) are now errors of the model *)
Definition probe_state (l : list N) : sc strin := init_sc {| si_chars := l; si_look := 0 |}.
Definition model_decodes (l : list N) : option N :=
  match scan_uri_escapes str_ops mk0 (probe_state l) with SBase.Ok (c, _) => Some c | _ => None end.

Ltac Zify.zify_post_hook ::= idtac.
