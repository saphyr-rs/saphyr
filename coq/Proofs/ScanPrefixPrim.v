(* C15 prefix stability of the scanner (see ScanPrefix.v): the PRIMITIVES family - port of ScanShiftPrim.v. *)
From Coq Require Import List NArith ZArith Bool Arith Lia.
Import ListNotations.
Require Import Parser SBase SPrim SDir SScalar SFetch ScanLockPrim ScanPrefix ListKit.
Local Open Scope nat_scope.

(* lists *)
Lemma F2_existsb {A B} (R : A -> B -> Prop) (f : A -> bool) (g : B -> bool) l1 l2 :
  Forall2 R l1 l2 -> (forall a b, R a b -> f a = g b) -> existsb f l1 = existsb g l2.
Proof. exact (ScanLockPrim.F2_existsb R f g l1 l2). Qed.
Lemma F2_map {A B A' B'} (R : A -> B -> Prop) (R' : A' -> B' -> Prop) (f : A -> A') (g : B -> B') l1 l2 :
  Forall2 R l1 l2 -> (forall a b, R a b -> R' (f a) (g b)) -> Forall2 R' (map f l1) (map g l2).
Proof. exact (ScanLockPrim.F2_map R R' f g l1 l2). Qed.
Lemma F2_tl {A B} (R : A -> B -> Prop) l1 l2 : Forall2 R l1 l2 -> Forall2 R (tl l1) (tl l2).
Proof. exact (ScanLockPrim.F2_tl R l1 l2). Qed.
Lemma F2_last {A B} (R : A -> B -> Prop) l1 l2 d1 d2 : Forall2 R l1 l2 -> R d1 d2 -> R (last l1 d1) (last l2 d2).
Proof. exact (ScanLockPrim.F2_last R l1 l2 d1 d2). Qed.

(* [bwp_if H]: both sides branch on the same test *)
Ltac bwp_if H :=
  match goal with
  | |- swp _ (if ?c1 then _ else _) (if ?c2 then _ else _) _ _ _ =>
      first [ constr_eq c1 c2 | replace c2 with c1 by (b1_norm; sh_fwd H; reflexivity) ];
      let Eb := fresh "Eb" in destruct c1 eqn:Eb
  end.

Ltac ne_tl :=
  match goal with
  | HS : SH _ ?s _, HN : nbz (rn ?s 0), HR : rm ?t = tl (rm ?s) |- rm ?t <> [] => exact (SH_ne_tl _ _ _ _ HS HN HR)
  | HS : SH _ ?s _, HN : is_breakz (rn ?s 0) = false, HR : rm ?t = tl (rm ?s) |- rm ?t <> [] => exact (SH_ne_tl _ _ _ _ HS HN HR)
  end.

Section Generic.
Variable d : list chr.
Local Notation bwp := (swp d).
Local Notation skel_post Q s1 :=
  (forall t1 t2, SH d t1 t2 -> rm t1 = rm s1 -> Q tt t1 tt t2).

(* calling a contract *)
Lemma bwp_call {A1 A2 B1 B2} (VR : A1 -> A2 -> Prop) (m1 : BM A1) (m2 : BM A2) (f1 : A1 -> BM B1) (f2 : A2 -> BM B2)
  (Q : B1 -> bst -> B2 -> bst -> Prop) s1 s2 :
  bwp m1 m2 (bpost d VR) s1 s2 ->
  (forall a1 a2 t1 t2, VR a1 a2 -> SH d t1 t2 -> bwp (f1 a1) (f2 a2) Q t1 t2) ->
  bwp (bind m1 f1) (bind m2 f2) Q s1 s2.
Proof. intros H HK. apply bwp_bind. eapply bwp_mono; [exact H|]. intros a1 t1 a2 t2 [V HB]. apply HK; assumption. Qed.
Lemma bwp_call_eq {A B1 B2} (m1 m2 : BM A) (f1 : A -> BM B1) (f2 : A -> BM B2) (Q : B1 -> bst -> B2 -> bst -> Prop) s1 s2 :
  bwp m1 m2 (bpost d eq) s1 s2 ->
  (forall a t1 t2, SH d t1 t2 -> bwp (f1 a) (f2 a) Q t1 t2) ->
  bwp (bind m1 f1) (bind m2 f2) Q s1 s2.
Proof. intros H HK. eapply bwp_call; [exact H|]. intros a1 a2 t1 t2 <- HB. apply HK. exact HB. Qed.
Lemma bwp_call_al {A1 A2 B1 B2} (VR : A1 -> A2 -> Prop) (m1 : BM A1) (m2 : BM A2) (f1 : A1 -> BM B1) (f2 : A2 -> BM B2)
  (Q : B1 -> bst -> B2 -> bst -> Prop) s1 s2 :
  bwp m1 m2 (bpost_al d VR) s1 s2 ->
  (forall a1 a2 t1 t2, VR a1 a2 -> SH d t1 t2 -> is_break (rn t1 0) = false -> bwp (f1 a1) (f2 a2) Q t1 t2) ->
  bwp (bind m1 f1) (bind m2 f2) Q s1 s2.
Proof. intros H HK. apply bwp_bind. eapply bwp_mono; [exact H|]. intros a1 t1 a2 t2 (V & HB & HA). apply HK; assumption. Qed.
Lemma bwp_call_al_eq {A B1 B2} (m1 m2 : BM A) (f1 : A -> BM B1) (f2 : A -> BM B2) (Q : B1 -> bst -> B2 -> bst -> Prop) s1 s2 :
  bwp m1 m2 (bpost_al d eq) s1 s2 ->
  (forall a t1 t2, SH d t1 t2 -> is_break (rn t1 0) = false -> bwp (f1 a) (f2 a) Q t1 t2) ->
  bwp (bind m1 f1) (bind m2 f2) Q s1 s2.
Proof. intros H HK. eapply bwp_call_al; [exact H|]. intros a1 a2 t1 t2 <- HB HA. apply HK; assumption. Qed.
Lemma bwp_bpost_al_weaken {A1 A2} (VR : A1 -> A2 -> Prop) (m1 : BM A1) (m2 : BM A2) s1 s2 :
  bwp m1 m2 (bpost_al d VR) s1 s2 -> bwp m1 m2 (bpost d VR) s1 s2.
Proof. intros H. eapply bwp_mono; [exact H|]. intros a1 t1 a2 t2 (V & HB & _). split; assumption. Qed.
Lemma bwp_ret_bpost {A1 A2} (VR : A1 -> A2 -> Prop) a1 a2 s1 s2 : VR a1 a2 -> SH d s1 s2 -> bwp (ret a1) (ret a2) (bpost d VR) s1 s2.
Proof. intros V H. apply bwp_ret. split; assumption. Qed.
Lemma bwp_ret_bpost_al {A1 A2} (VR : A1 -> A2 -> Prop) a1 a2 s1 s2 :
  VR a1 a2 -> SH d s1 s2 -> is_break (rn s1 0) = false -> bwp (ret a1) (ret a2) (bpost_al d VR) s1 s2.
Proof. intros V H HA. apply bwp_ret. split; [exact V|split; [exact H|exact HA]]. Qed.

(* the same skeleton read on both sides (premise: [sh_eq]) *)
Lemma bwp_gets_eq {A} (f1 f2 : bst -> A) (Q : A -> bst -> A -> bst -> Prop) s1 s2 :
  f1 s1 = f2 s2 -> Q (f1 s1) s1 (f1 s1) s2 -> bwp (gets f1) (gets f2) Q s1 s2.
Proof. intros E HQ. apply bwp_gets. rewrite <- E. exact HQ. Qed.
Lemma bwp_modify_br (f1 f2 : bst -> bst) (Q : unit -> bst -> unit -> bst -> Prop) s1 s2 :
  SH d (f1 s1) (f2 s2) -> rm (f1 s1) = rm s1 -> skel_post Q s1 -> bwp (modify f1) (modify f2) Q s1 s2.
Proof. intros HB HR HQ. apply bwp_modify. apply HQ; assumption. Qed.
Lemma bwp_put_br (u1 u2 : bst) (Q : unit -> bst -> unit -> bst -> Prop) s1 s2 :
  SH d u1 u2 -> rm u1 = rm s1 -> skel_post Q s1 -> bwp (put u1) (put u2) Q s1 s2.
Proof. intros HB HR HQ. apply bwp_put. apply HQ; assumption. Qed.

(* errors are reported at the mark: same line and column on both sides *)
Lemma bwp_fail_mark {A1 A2} site (Q : A1 -> bst -> A2 -> bst -> Prop) s1 s2 :
  SH d s1 s2 -> bwp (@fail strin A1 site (sc_mark s1)) (@fail strin A2 site (sc_mark s2)) Q s1 s2.
Proof. intros H. apply bwp_fail. exact (sh_mark H). Qed.
Lemma bwp_mark (Q : marker -> bst -> marker -> bst -> Prop) s1 s2 :
  SH d s1 s2 -> (MS d (sc_mark s1) (sc_mark s2) -> Q (sc_mark s1) s1 (sc_mark s2) s2) -> bwp mark mark Q s1 s2.
Proof. intros H HQ. unfold mark. apply bwp_gets. apply HQ. exact (sh_mark H). Qed.
Lemma bwp_mark_fail {A1 A2} site (Q : A1 -> bst -> A2 -> bst -> Prop) s1 s2 :
  SH d s1 s2 -> bwp (bind mark (fun m => @fail strin A1 site m)) (bind mark (fun m => @fail strin A2 site m)) Q s1 s2.
Proof. intros H. apply bwp_bind. apply bwp_mark; [exact H|]. intros HM. apply bwp_fail. exact HM. Qed.

(* token queue / flags *)
Lemma bwp_push_tok tk1 tk2 (Q : unit -> bst -> unit -> bst -> Prop) s1 s2 :
  SH d s1 s2 -> TS d tk1 tk2 -> skel_post Q s1 -> bwp (push_tok tk1) (push_tok tk2) Q s1 s2.
Proof. intros H HT HQ. unfold push_tok. apply bwp_modify_br; [apply SH_push; assumption|reflexivity|exact HQ]. Qed.
(* insert_token: the same insertion, or the same out-of-range panic *)
Lemma bwp_insert_token p tk1 tk2 (Q : unit -> bst -> unit -> bst -> Prop) s1 s2 :
  SH d s1 s2 -> TS d tk1 tk2 -> skel_post Q s1 -> bwp (insert_token p tk1) (insert_token p tk2) Q s1 s2.
Proof.
  intros H HT HQ. unfold swp, insert_token.
  pose proof (F2_insert_at (TS d) (N.to_nat p) tk1 tk2 _ _ (sh_tokens H) HT) as HI.
  destruct (insert_at (N.to_nat p) tk1 (sc_tokens s1)) as [l1|]; [|exact I].
  destruct (insert_at (N.to_nat p) tk2 (sc_tokens s2)) as [l2|]; [|destruct HI].
  apply HQ; [apply SH_set_tokens; assumption|reflexivity].
Qed.
Lemma bwp_allow_simple_key (Q : unit -> bst -> unit -> bst -> Prop) s1 s2 :
  SH d s1 s2 -> skel_post Q s1 -> bwp allow_simple_key allow_simple_key Q s1 s2.
Proof. intros H HQ. unfold allow_simple_key. apply bwp_modify_br; [apply SH_set_ska; exact H|reflexivity|exact HQ]. Qed.
Lemma bwp_disallow_simple_key (Q : unit -> bst -> unit -> bst -> Prop) s1 s2 :
  SH d s1 s2 -> skel_post Q s1 -> bwp disallow_simple_key disallow_simple_key Q s1 s2.
Proof. intros H HQ. unfold disallow_simple_key. apply bwp_modify_br; [apply SH_set_ska; exact H|reflexivity|exact HQ]. Qed.

(* flow_level / in_flow / is_within_block / col / col_lt_indent: the same value on both sides *)
Lemma bwp_flow_level (Q : N -> bst -> N -> bst -> Prop) s1 s2 :
  SH d s1 s2 -> Q (sc_flow_level s1) s1 (sc_flow_level s1) s2 -> bwp flow_level flow_level Q s1 s2.
Proof. intros H HQ. unfold flow_level. apply bwp_gets_eq; [exact (SH_flow_level H)|exact HQ]. Qed.
Lemma bwp_in_flow (Q : bool -> bst -> bool -> bst -> Prop) s1 s2 :
  SH d s1 s2 -> Q (0 <? sc_flow_level s1)%N s1 (0 <? sc_flow_level s1)%N s2 -> bwp in_flow in_flow Q s1 s2.
Proof. intros H HQ. unfold in_flow. apply bwp_bind. apply bwp_flow_level; [exact H|]. apply bwp_ret. exact HQ. Qed.
Lemma bwp_is_within_block (Q : bool -> bst -> bool -> bst -> Prop) s1 s2 :
  SH d s1 s2 -> Q (within_block1 s1) s1 (within_block1 s1) s2 -> bwp is_within_block is_within_block Q s1 s2.
Proof.
  intros H HQ. unfold is_within_block. apply bwp_gets_eq; [|exact HQ]. rewrite (SH_indents H). reflexivity.
Qed.
Lemma bwp_col (Q : N -> bst -> N -> bst -> Prop) s1 s2 :
  SH d s1 s2 -> Q (m_col (sc_mark s1)) s1 (m_col (sc_mark s1)) s2 -> bwp col col Q s1 s2.
Proof. intros H HQ. unfold col. apply bwp_gets_eq; [exact (SH_col H)|exact HQ]. Qed.
Lemma bwp_col_lt_indent (Q : bool -> bst -> bool -> bst -> Prop) s1 s2 :
  SH d s1 s2 ->
  Q (Z.of_N (m_col (sc_mark s1)) <? sc_indent s1)%Z s1 (Z.of_N (m_col (sc_mark s1)) <? sc_indent s1)%Z s2 ->
  bwp col_lt_indent col_lt_indent Q s1 s2.
Proof. intros H HQ. unfold col_lt_indent. apply bwp_gets_eq; [|exact HQ]. rewrite (SH_col H), (SH_indent H). reflexivity. Qed.

(* indentation *)
Definition NS (o1 o2 : option N) : Prop :=
  match o1, o2 with Some a, Some b => a = b | None, None => True | _, _ => False end.
Lemma NS_none : NS None None. Proof. exact I. Qed.
Lemma shift_ltb a b k : (a + k <? b + k)%N = (a <? b)%N.
Proof. destruct (N.ltb_spec (a + k) (b + k)); destruct (N.ltb_spec a b); try reflexivity; lia. Qed.
Lemma shift_eqb a b k : (a + k =? b + k)%N = (a =? b)%N.
Proof. destruct (N.eqb_spec (a + k) (b + k)); destruct (N.eqb_spec a b); try reflexivity; lia. Qed.
Lemma shift_sub a b k : (a + k - (b + k))%N = (a - b)%N.
Proof. lia. Qed.
Lemma bwp_roll_indent cl number1 number2 tk mk1 mk2 (Q : unit -> bst -> unit -> bst -> Prop) s1 s2 :
  SH d s1 s2 -> MS d mk1 mk2 -> NS number1 number2 -> skel_post Q s1 ->
  bwp (roll_indent cl number1 tk mk1) (roll_indent cl number2 tk mk2) Q s1 s2.
Proof.
  intros H HM HN HQ. unfold roll_indent. apply bwp_bind. apply bwp_get. cbv beta. sh_sync H.
  destruct (0 <? sc_flow_level s1)%N; [apply bwp_ret; apply HQ; [exact H|reflexivity]|].
  match goal with |- context [let '(ind, inds) := ?X in _] => destruct X as [ind inds] end.
  destruct (ind <? Z.of_N cl)%Z.
  - destruct (BLOCK_NESTING_MAX <=? N.of_nat (length inds))%N; [exact I|].
    apply bwp_bind. apply bwp_put_br; [apply SH_set_indent; exact H|reflexivity|]. intros u1 u2 HU RU.
    destruct number1 as [n|], number2 as [n2|]; try contradiction.
    + cbn [NS] in HN. subst n2.
      destruct (n <? sc_tokens_parsed s1)%N; [apply bwp_panic_l|].
      apply bwp_insert_token; [exact HU|apply TS_empty; exact HM|]. intros t1 t2 HT RT. apply HQ; [exact HT|congruence].
    + apply bwp_push_tok; [exact HU|apply TS_empty; exact HM|]. intros t1 t2 HT RT. apply HQ; [exact HT|congruence].
  - apply bwp_put_br; [apply SH_set_indent; exact H|reflexivity|exact HQ].
Qed.

Lemma bwp_unroll_indent_go F1 F2 cl (Q : unit -> bst -> unit -> bst -> Prop) s1 s2 :
  SH d s1 s2 -> skel_post Q s1 -> bwp (unroll_indent_go F1 cl) (unroll_indent_go F2 cl) Q s1 s2.
Proof.
  revert F2 Q s1 s2. induction F1 as [|F1 IH]; intros F2 Q s1 s2 H HQ; [exact I|].
  destruct F2 as [|F2]; [apply bwp_oof_r|].
  cbn [unroll_indent_go]. apply bwp_bind. apply bwp_get. cbv beta. sh_sync H.
  destruct (cl <? sc_indent s1)%Z; [|apply bwp_ret; apply HQ; [exact H|reflexivity]].
  destruct (sc_indents s1) as [|i r] eqn:EI; [apply bwp_panic_l|].
  apply bwp_bind. apply bwp_put_br; [apply SH_set_indent; exact H|reflexivity|]. intros u1 u2 HU RU.
  apply bwp_bind. destruct (in_needs_block_end i).
  - apply bwp_push_tok; [exact HU|apply TS_refl|]. intros v1 v2 HV RV.
    apply IH; [exact HV|]. intros t1 t2 HT RT. apply HQ; [exact HT|congruence].
  - apply bwp_ret. apply IH; [exact HU|]. intros t1 t2 HT RT. apply HQ; [exact HT|congruence].
Qed.
Lemma bwp_unroll_indent cl (Q : unit -> bst -> unit -> bst -> Prop) s1 s2 :
  SH d s1 s2 -> skel_post Q s1 -> bwp (unroll_indent cl) (unroll_indent cl) Q s1 s2.
Proof.
  intros H HQ. unfold unroll_indent. apply bwp_bind. apply bwp_get. cbv beta. sh_sync H.
  destruct (0 <? sc_flow_level s1)%N; [apply bwp_ret; apply HQ; [exact H|reflexivity]|].
  apply bwp_unroll_indent_go; [exact H|exact HQ].
Qed.
Lemma bwp_roll_one_col_indent (Q : unit -> bst -> unit -> bst -> Prop) s1 s2 :
  SH d s1 s2 -> skel_post Q s1 -> bwp roll_one_col_indent roll_one_col_indent Q s1 s2.
Proof.
  intros H HQ. unfold roll_one_col_indent. apply bwp_bind. apply bwp_get. cbv beta. sh_sync H.
  match goal with |- swp _ (if ?b then _ else _) _ _ _ _ => destruct b end.
  - apply bwp_put_br; [apply SH_set_indent; exact H|reflexivity|exact HQ].
  - apply bwp_ret. apply HQ; [exact H|reflexivity].
Qed.
Lemma bwp_unroll_non_block_indents (Q : unit -> bst -> unit -> bst -> Prop) s1 s2 :
  SH d s1 s2 -> skel_post Q s1 -> bwp unroll_non_block_indents unroll_non_block_indents Q s1 s2.
Proof.
  intros H HQ. unfold unroll_non_block_indents. apply bwp_modify. sh_sync H.
  destruct (unroll_nb (sc_indents s1) (sc_indent s1)) as [ind l]. apply HQ; [apply SH_set_indent; exact H|reflexivity].
Qed.

(* simple keys *)
Lemma bwp_save_simple_key (Q : unit -> bst -> unit -> bst -> Prop) s1 s2 :
  SH d s1 s2 -> skel_post Q s1 -> bwp save_simple_key save_simple_key Q s1 s2.
Proof.
  intros H HQ. unfold save_simple_key. apply bwp_bind. apply bwp_get. cbv beta. sh_sync H.
  destruct (sc_ska s1); [|apply bwp_ret; apply HQ; [exact H|reflexivity]].
  apply bwp_bind.
  assert (HP : forall l, bwp (put (set_sks l s1)) (put (set_sks l s2)) Q s1 s2).
  { intros l. apply bwp_put_br; [|reflexivity|exact HQ]. apply SH_set_sks; [exact H|apply KSs_refl]. }
  match goal with |- swp _ (if ?b then _ else _) _ _ _ _ => destruct b end.
  - destruct (sc_indents s1) as [|i r]; [apply bwp_panic_l|]. apply bwp_ret. apply HP.
  - apply bwp_ret. apply HP.
Qed.
Lemma bwp_remove_simple_key (Q : unit -> bst -> unit -> bst -> Prop) s1 s2 :
  SH d s1 s2 -> skel_post Q s1 -> bwp remove_simple_key remove_simple_key Q s1 s2.
Proof.
  intros H HQ. unfold remove_simple_key. apply bwp_bind. apply bwp_get. cbv beta. sh_sync H.
  destruct (sc_sks s1) as [|k r]; [apply bwp_panic_l|].
  destruct (sk_possible k && sk_required k); [apply bwp_err_l|].
  apply bwp_put_br; [|reflexivity|exact HQ]. apply SH_set_sks; [exact H|apply KSs_refl].
Qed.
Lemma bwp_stale_simple_keys (Q : unit -> bst -> unit -> bst -> Prop) s1 s2 :
  SH d s1 s2 -> skel_post Q s1 -> bwp stale_simple_keys stale_simple_keys Q s1 s2.
Proof.
  intros H HQ. unfold stale_simple_keys. apply bwp_bind. apply bwp_get. cbv beta zeta. sh_sync H.
  match goal with |- swp _ (if ?b then _ else _) _ _ _ _ => destruct b end; [apply bwp_err_l|].
  apply bwp_put_br; [|reflexivity|exact HQ]. apply SH_set_sks; [exact H|apply KSs_refl].
Qed.

Lemma bwp_end_implicit_mapping mk1 mk2 (Q : unit -> bst -> unit -> bst -> Prop) s1 s2 :
  SH d s1 s2 -> MS d mk1 mk2 -> skel_post Q s1 -> bwp (end_implicit_mapping mk1) (end_implicit_mapping mk2) Q s1 s2.
Proof.
  intros H HM HQ. unfold end_implicit_mapping. apply bwp_bind. apply bwp_get. cbv beta. sh_sync H.
  assert (H0 : bwp (ret tt) (ret tt) Q s1 s2) by (apply bwp_ret; apply HQ; [exact H|reflexivity]).
  destruct (sc_ifms s1) as [|[| | |] r]; try exact H0.
  - apply bwp_bind. apply bwp_put_br; [apply SH_set_ifms; exact H|reflexivity|]. intros u1 u2 HU RU.
    apply bwp_push_tok; [exact HU|apply TS_empty; exact HM|]. intros t1 t2 HT RT. apply HQ; [exact HT|congruence].
  - apply bwp_put_br; [apply SH_set_ifms; exact H|reflexivity|exact HQ].
Qed.
(* the opening of a flow collection as one step (the bracket is neither a break nor NUL) *)
Definition flow_open_st (s : bst) : bst :=
  nb1 (set_ska true (set_fl (sc_flow_level s + 1)
        (set_sks ({| sk_possible := false; sk_required := false; sk_token_number := 0; sk_mark := mk0 |} :: sc_sks s) s))).
Lemma flow_open_eval {B} (k : marker -> BM B) (s : bst) :
  bind increase_flow_level (fun _ => bind allow_simple_key (fun _ => bind mark (fun st => bind (skip_non_blank sops) (fun _ => k st)))) s
  = if (sc_flow_level s =? FLOW_LEVEL_MAX)%N then Err 45%N (sc_mark s) else k (sc_mark s) (flow_open_st s).
Proof.
  unfold increase_flow_level. unfold bind at 1 2. unfold get. cbv zeta.
  destruct (sc_flow_level s =? FLOW_LEVEL_MAX)%N; [reflexivity|]. reflexivity.
Qed.
Lemma bwp_flow_open {B1 B2} (k1 : marker -> BM B1) (k2 : marker -> BM B2) (Q : B1 -> bst -> B2 -> bst -> Prop) s1 s2 :
  SH d s1 s2 -> nbz (rn s1 0) ->
  (forall t1 t2, SH d t1 t2 -> rm t1 = tl (rm s1) -> bwp (k1 (sc_mark s1)) (k2 (sc_mark s2)) Q t1 t2) ->
  bwp (bind increase_flow_level (fun _ => bind allow_simple_key (fun _ => bind mark (fun st => bind (skip_non_blank sops) (fun _ => k1 st)))))
      (bind increase_flow_level (fun _ => bind allow_simple_key (fun _ => bind mark (fun st => bind (skip_non_blank sops) (fun _ => k2 st)))))
      Q s1 s2.
Proof.
  intros H H0 HQ. unfold swp. rewrite !flow_open_eval. rewrite <- (SH_flow_level H).
  destruct (sc_flow_level s1 =? FLOW_LEVEL_MAX)%N; [exact I|].
  apply HQ; [|reflexivity]. unfold flow_open_st. rewrite <- (SH_flow_level H).
  apply SH_nb1; [|exact H0]. apply SH_set_ska. apply SH_set_fl. apply SH_set_sks; [exact H|].
  constructor; [reflexivity|exact (sh_sks H)].
Qed.
Lemma bwp_decrease_flow_level (Q : unit -> bst -> unit -> bst -> Prop) s1 s2 :
  SH d s1 s2 -> skel_post Q s1 -> bwp decrease_flow_level decrease_flow_level Q s1 s2.
Proof.
  intros H HQ. unfold decrease_flow_level. apply bwp_bind. apply bwp_get. cbv beta. sh_sync H.
  destruct (0 <? sc_flow_level s1)%N; [|apply bwp_ret; apply HQ; [exact H|reflexivity]].
  destruct (sc_sks s1) as [|k r]; [apply bwp_panic_l|].
  apply bwp_put_br; [|reflexivity|exact HQ].
  apply SH_set_sks; [apply SH_set_fl; exact H|apply KSs_refl].
Qed.

(* the bulk input loops (lockstep; two fuels) *)
Lemma skipn_tl {A} j (l : list A) : skipn j (tl l) = skipn (S j) l.
Proof. exact (ScanLockPrim.skipn_tl j l). Qed.

(* a class test on the next character: the same answer when side 1 is inside its text, or when the class holds
   neither of NUL nor of '.' *)
Lemma class_same p s1 s2 : SH d s1 s2 -> (forall c, p c = true -> nbz c) -> (p 46%N = false \/ rm s1 <> []) ->
  p (b1 (rn s1 0)) = p (rn s1 0).
Proof.
  intros H Hp HD. destruct (N.eq_dec (rn s1 0) 0) as [E0|N0]; [|rewrite b1_other by exact N0; reflexivity].
  destruct HD as [P46|HE]; [|exfalso; exact (SH_nz d _ _ H HE E0)].
  rewrite E0, b1_0, P46. destruct (p 0%N) eqn:P0; [|reflexivity]. apply Hp in P0. discriminate P0.
Qed.

Lemma bwp_in_skip_while F1 F2 p (Q : N -> bst -> N -> bst -> Prop) s1 s2 :
  SH d s1 s2 -> (forall c, p c = true -> nbz c) -> (p 46%N = false \/ rm s1 <> []) ->
  (forall k t1 t2, SH d t1 t2 -> p (rn t1 0) = false ->
     rm t1 = skipn (N.to_nat k) (rm s1) -> (forall i, i < N.to_nat k -> p (rn s1 i) = true) ->
     (rm s1 <> [] -> rm t1 <> []) -> Q k t1 k t2) ->
  bwp (in_skip_while sops F1 p) (in_skip_while sops F2 p) Q s1 s2.
Proof.
  intros H Hp HD HQ. unfold in_skip_while.
  match goal with |- swp _ (?L F1 0%N) (?L F2 0%N) _ _ _ =>
    assert (HL : forall f1 f2 k u1 u2, SH d u1 u2 -> rm u1 = skipn (N.to_nat k) (rm s1) ->
                   (forall i, i < N.to_nat k -> p (rn s1 i) = true) ->
                   (p 46%N = false \/ rm u1 <> []) -> (rm s1 <> [] -> rm u1 <> []) -> bwp (L f1 k) (L f2 k) Q u1 u2) end.
  { induction f1 as [|f1 IHf]; intros f2 k u1 u2 HU RU PU DU NU; [exact I|].
    destruct f2 as [|f2]; [apply bwp_oof_r|]. lazy beta iota.
    apply bwp_bind. apply (bwp_look_ch d); [exact HU|]. intros v1 v2 HV RV _ _ _.
    assert (DV : p 46%N = false \/ rm v1 <> []) by (destruct DU as [DU|DU]; [left; exact DU|right; rewrite RV; exact DU]).
    rewrite (class_same p v1 v2 HV Hp DV).
    destruct (p (rn v1 0)) eqn:Ep.
    - assert (N0 : nbz (rn v1 0)) by (apply Hp; exact Ep).
      apply bwp_bind. apply (bwp_in_skip d); [exact HV|exact N0|]. intros w1 w2 HW RW _ _.
      assert (NW : rm w1 <> []) by (ne_tl).
      apply IHf; [exact HW| | |right; exact NW|intros _; exact NW].
      + rewrite RW, RV, RU, tl_skipn. f_equal. lia.
      + intros i Hi. destruct (Nat.eq_dec i (N.to_nat k)) as [->|Hne]; [|apply PU; lia].
        rewrite <- Ep. rewrite (rn_eq v1 u1 0 RV). rewrite (rn_skipn u1 s1 _ 0 RU). rewrite Nat.add_0_r. reflexivity.
    - apply bwp_ret. apply HQ; try assumption; [congruence|]. intros HE. rewrite RV. apply NU. exact HE. }
  apply HL; [exact H|reflexivity| |exact HD|auto]. intros i Hi. cbn in Hi. lia.
Qed.
Lemma bwp_in_skip_while_non_breakz F1 F2 (Q : N -> bst -> N -> bst -> Prop) s1 s2 :
  SH d s1 s2 -> rm s1 <> [] ->
  (forall k t1 t2, SH d t1 t2 -> is_breakz (rn t1 0) = true ->
     rm t1 = skipn (N.to_nat k) (rm s1) -> (forall i, i < N.to_nat k -> is_breakz (rn s1 i) = false) ->
     rm t1 <> [] -> Q k t1 k t2) ->
  bwp (in_skip_while_non_breakz sops F1) (in_skip_while_non_breakz sops F2) Q s1 s2.
Proof.
  intros H HE HQ. unfold in_skip_while_non_breakz. apply bwp_in_skip_while; [exact H| |right; exact HE|].
  - intros c Hc. apply negb_true_iff. exact Hc.
  - intros k t1 t2 HT PT RT AT NT. apply HQ; try assumption.
    + apply negb_false_iff. exact PT.
    + intros i Hi. apply negb_true_iff. apply AT. exact Hi.
    + apply NT. exact HE.
Qed.
Lemma blank_nbz c : is_blank c = true -> nbz c.
Proof. intros E. nbz_by E. Qed.
Lemma bwp_in_skip_while_blank F1 F2 (Q : N -> bst -> N -> bst -> Prop) s1 s2 :
  SH d s1 s2 ->
  (forall k t1 t2, SH d t1 t2 -> is_blank (rn t1 0) = false ->
     rm t1 = skipn (N.to_nat k) (rm s1) -> (forall i, i < N.to_nat k -> is_blank (rn s1 i) = true) ->
     (rm s1 <> [] -> rm t1 <> []) -> Q k t1 k t2) ->
  bwp (in_skip_while_blank sops F1) (in_skip_while_blank sops F2) Q s1 s2.
Proof.
  intros H HQ. unfold in_skip_while_blank. apply bwp_in_skip_while; [exact H|exact blank_nbz|left; reflexivity|exact HQ].
Qed.

Lemma bwp_in_fetch_while_alpha F1 F2 acc (Q : list chr * N -> bst -> list chr * N -> bst -> Prop) s1 s2 :
  SH d s1 s2 ->
  (forall r t1 t2, SH d t1 t2 -> is_alpha (rn t1 0) = false ->
     rm t1 = skipn (N.to_nat (snd r)) (rm s1) ->
     (forall i, i < N.to_nat (snd r) -> is_alpha (rn s1 i) = true) -> (rm s1 <> [] -> rm t1 <> []) -> Q r t1 r t2) ->
  bwp (in_fetch_while_alpha sops F1 acc) (in_fetch_while_alpha sops F2 acc) Q s1 s2.
Proof.
  intros H HQ. unfold in_fetch_while_alpha.
  match goal with |- swp _ (?L F1 acc 0%N) (?L F2 acc 0%N) _ _ _ =>
    assert (HL : forall f1 f2 a k u1 u2, SH d u1 u2 -> rm u1 = skipn (N.to_nat k) (rm s1) ->
                   (forall i, i < N.to_nat k -> is_alpha (rn s1 i) = true) -> (rm s1 <> [] -> rm u1 <> []) ->
                   bwp (L f1 a k) (L f2 a k) Q u1 u2) end.
  { induction f1 as [|f1 IHf]; intros f2 a k u1 u2 HU RU PU NU; [exact I|].
    destruct f2 as [|f2]; [apply bwp_oof_r|]. lazy beta iota.
    apply bwp_bind. apply (bwp_look_ch d); [exact HU|]. intros v1 v2 HV RV _ _ _. rewrite b1_is_alpha.
    destruct (is_alpha (rn v1 0)) eqn:Ep.
    - assert (N0 : nbz (rn v1 0)) by (nbz_by Ep).
      apply bwp_bind. apply (bwp_in_skip d); [exact HV|exact N0|]. intros w1 w2 HW RW _ _.
      rewrite (b1_nbz _ N0).
      assert (NW : rm w1 <> []) by (ne_tl).
      apply IHf; [exact HW| | |intros _; exact NW].
      + rewrite RW, RV, RU, tl_skipn. f_equal. lia.
      + intros i Hi. destruct (Nat.eq_dec i (N.to_nat k)) as [->|Hne]; [|apply PU; lia].
        rewrite <- Ep. rewrite (rn_eq v1 u1 0 RV). rewrite (rn_skipn u1 s1 _ 0 RU). rewrite Nat.add_0_r. reflexivity.
    - apply bwp_ret. apply HQ; cbn [snd]; try assumption; [congruence|]. intros HE. rewrite RV. apply NU. exact HE. }
  apply HL; [exact H|reflexivity| |auto]. intros i Hi. cbn in Hi. lia.
Qed.

(* in_skip_ws_to_eol (with its nested comment loop): j characters consumed - blanks and comment text, never a line
   break -; if any was consumed side 1 is not at its end *)
Lemma bwp_in_skip_ws_to_eol F1 F2 stb tab ws n
  (Q : N * option (bool * bool) -> bst -> N * option (bool * bool) -> bst -> Prop) s1 s2 :
  SH d s1 s2 ->
  (forall r j t1 t2, SH d t1 t2 -> fst r = (n + N.of_nat j)%N -> rm t1 = skipn j (rm s1) -> (j = 0 \/ rm t1 <> []) ->
     Q r t1 r t2) ->
  bwp (in_skip_ws_to_eol sops F1 stb tab ws n) (in_skip_ws_to_eol sops F2 stb tab ws n) Q s1 s2.
Proof.
  revert F2 tab ws n Q s1 s2. induction F1 as [|F1 IHF]; intros F2 tab ws n Q s1 s2 H HQ; [exact I|].
  destruct F2 as [|F2]; [apply bwp_oof_r|].
  cbn [in_skip_ws_to_eol].
  apply bwp_bind. apply (bwp_look_ch d); [exact H|]. intros u1 u2 HU RU _ _ _.
  assert (STEP : forall tab' ws' j0 v1 v2, SH d v1 v2 -> rm v1 = skipn j0 (rm s1) -> rm v1 <> [] ->
            bwp (in_skip_ws_to_eol sops F1 stb tab' ws' (n + N.of_nat j0)%N)
                (in_skip_ws_to_eol sops F2 stb tab' ws' (n + N.of_nat j0)%N) Q v1 v2).
  { intros tab' ws' j0 v1 v2 HV RV NV. apply IHF; [exact HV|]. intros r j t1 t2 HT FR RT NT.
    apply (HQ r (j0 + j)); [exact HT|rewrite FR; lia|rewrite RT, RV; apply skipn_add|].
    right. destruct NT as [->|NT]; [|exact NT]. rewrite RT. exact NV. }
  assert (ONE : forall v1 : bst, rm v1 = tl (rm u1) -> rm v1 = skipn 1 (rm s1)).
  { intros v1 RV. rewrite RV, RU. reflexivity. }
  b1_norm.
  destruct (N.eqb_spec (rn u1 0) 32) as [E32|N32].
  { assert (N0 : nbz (rn u1 0)) by (unfold nbz; rewrite E32; reflexivity).
    apply bwp_bind. apply (bwp_in_skip d); [exact HU|exact N0|]. intros v1 v2 HV RV _ _.
    apply (STEP tab true 1 v1 v2); [exact HV|apply ONE; exact RV|ne_tl]. }
  match goal with |- swp _ (if ?b then _ else _) _ _ _ _ => destruct b eqn:Etab end.
  { assert (N0 : nbz (rn u1 0)).
    { apply andb_true_iff in Etab. destruct Etab as [E9 _]. exact (lit_eq_nbz _ 9%N eq_refl E9). }
    apply bwp_bind. apply (bwp_in_skip d); [exact HU|exact N0|]. intros v1 v2 HV RV _ _.
    apply (STEP true ws 1 v1 v2); [exact HV|apply ONE; exact RV|ne_tl]. }
  assert (HQ0 : forall o, Q (n, o) u1 (n, o) u2).
  { intros o. apply (HQ (n, o) 0); [exact HU|cbn [fst]; lia|exact RU|left; reflexivity]. }
  destruct (N.eqb_spec (rn u1 0) 35) as [E35|N35]; [|apply bwp_ret; apply HQ0].
  destruct (negb tab && negb ws); [apply bwp_ret; apply HQ0|].
  assert (N0 : nbz (rn u1 0)) by (unfold nbz; rewrite E35; reflexivity).
  apply bwp_bind. apply (bwp_in_skip d); [exact HU|exact N0|]. intros v1 v2 HV RV _ _.
  assert (NV : rm v1 <> []) by (ne_tl).
  match goal with |- swp _ (?L1 F1 n) (?L2 F2 n) _ _ _ =>
    assert (HL : forall f1 f2 j w1 w2, SH d w1 w2 -> rm w1 = skipn (S j) (rm s1) -> rm w1 <> [] ->
                   bwp (L1 f1 (n + N.of_nat j)%N) (L2 f2 (n + N.of_nat j)%N) Q w1 w2) end.
  { induction f1 as [|f1 IHf]; intros f2 j w1 w2 HW RW NW; [exact I|].
    destruct f2 as [|f2]; [apply bwp_oof_r|]. lazy beta iota.
    apply bwp_bind. apply (bwp_look_ch d); [exact HW|]. intros x1 x2 HX RX _ _ _.
    assert (NX : rm x1 <> []) by (rewrite RX; exact NW).
    rewrite (SH_b1_in d _ _ HX NX).
    destruct (is_breakz (rn x1 0)) eqn:Ebz.
    - replace (n + N.of_nat j + 1)%N with (n + N.of_nat (S j))%N by lia.
      apply STEP; [exact HX|congruence|exact NX].
    - apply bwp_bind. apply (bwp_in_skip d); [exact HX|exact Ebz|]. intros y1 y2 HY RY _ _.
      replace (n + N.of_nat j + 1)%N with (n + N.of_nat (S j))%N by lia.
      apply IHf; [exact HY|rewrite RY, RX, RW; apply tl_skipn|ne_tl]. }
  specialize (HL F1 F2 0 v1 v2 HV (ONE v1 RV) NV). change (N.of_nat 0) with 0%N in HL. rewrite N.add_0_r in HL. exact HL.
Qed.

(* the contracts *)
Theorem skip_ws_to_eol_ok : shf_skip_ws_to_eol d.
Proof.
  unfold shf_skip_ws_to_eol. intros F1 F2 stb s1 s2 H. unfold skip_ws_to_eol.
  apply bwp_bind. apply bwp_in_skip_ws_to_eol; [exact H|]. intros r j u1 u2 HU FR RU NU.
  apply bwp_bind. apply (bwp_adv_mark d); [exact HU| |].
  { intros E. destruct NU as [->|NU]; [rewrite FR; reflexivity|contradiction]. }
  intros v1 v2 HV RV.
  destruct (snd r) as [tw|]; [|apply bwp_bind; apply bwp_mark; [exact HV|]; intros _; apply bwp_err_l].
  apply bwp_ret. split; [reflexivity|split; [exact HV|]]. intros HE. rewrite RV.
  destruct NU as [->|NU]; [rewrite RU; exact HE|exact NU].
Qed.
(* calling it *)
Lemma bwp_call_ws {B1 B2} F1 F2 stb (f1 : bool * bool -> BM B1) (f2 : bool * bool -> BM B2)
  (Q : B1 -> bst -> B2 -> bst -> Prop) s1 s2 :
  SH d s1 s2 ->
  (forall a t1 t2, SH d t1 t2 -> (rm s1 <> [] -> rm t1 <> []) -> bwp (f1 a) (f2 a) Q t1 t2) ->
  bwp (bind (skip_ws_to_eol sops F1 stb) f1) (bind (skip_ws_to_eol sops F2 stb) f2) Q s1 s2.
Proof.
  intros H HK. apply bwp_bind. eapply bwp_mono; [apply skip_ws_to_eol_ok; exact H|].
  intros a1 t1 a2 t2 (<- & HT & HNE). apply HK; assumption.
Qed.

Theorem skip_to_next_token_ok : shf_skip_to_next_token d.
Proof.
  unfold shf_skip_to_next_token. induction F1 as [|F1 IHF]; intros F2 s1 s2 H; [exact I|].
  destruct F2 as [|F2]; [apply bwp_oof_r|].
  cbn [skip_to_next_token].
  apply bwp_bind. apply (bwp_look_ch d); [exact H|]. intros u1 u2 HU RU _ _ _.
  apply bwp_bind. apply bwp_get. cbv beta.
  apply bwp_bind. apply bwp_is_within_block; [exact HU|]. cbv beta.
  bwp_if HU.
  { (* a tab in the indentation: skip_ws_to_eol, then a break must follow *)
    assert (N0 : nbz (rn u1 0)).
    { repeat (apply andb_true_iff in Eb; destruct Eb as [Eb _]). exact (lit_eq_nbz _ 9%N eq_refl Eb). }
    apply bwp_call_ws; [exact HU|]. intros tw v1 v2 HV NV.
    apply bwp_bind. apply (bwp_next_is_in d); [exact HV|apply NV; apply nbz_ne; exact N0|]. destruct (is_breakz (rn v1 0)).
    - apply IHF. exact HV.
    - apply bwp_bind. apply bwp_mark; [exact HV|]. intros _. apply bwp_err_l. }
  bwp_if HU.
  { (* tab or space *)
    assert (N0 : nbz (rn u1 0)) by (nbz_by Eb0).
    apply bwp_bind. apply (bwp_skip_blank d); [exact HU|exact N0|]. intros v1 v2 HV _. apply IHF. exact HV. }
  bwp_if HU.
  { (* a line break: the same characters consumed on both sides by skip_linebreak *)
    apply bwp_bind. apply (bwp_look d); [exact HU|]. intros v1 v2 HV RV _ _ _ _.
    apply bwp_bind. apply (bwp_skip_linebreak d); [exact HV|]. intros w1 w2 HW _.
    apply bwp_bind. apply bwp_flow_level; [exact HW|]. cbv beta.
    apply bwp_bind. destruct (sc_flow_level w1 =? 0)%N.
    - apply bwp_allow_simple_key; [exact HW|]. intros x1 x2 HX _. apply IHF. exact HX.
    - apply bwp_ret. apply IHF. exact HW. }
  bwp_if HU.
  { (* a comment *)
    assert (N0 : nbz (rn u1 0)) by (exact (lit_eq_nbz _ 35%N eq_refl Eb2)).
    apply bwp_bind. apply bwp_in_skip_while_non_breakz; [exact HU|apply nbz_ne; exact N0|]. intros k v1 v2 HV _ _ _ NV.
    apply bwp_bind. apply (bwp_adv_mark d); [exact HV|intros E; contradiction|]. intros w1 w2 HW _. apply IHF. exact HW. }
  apply bwp_ret_bpost_al; [reflexivity|exact HU|]. exact Eb1.
Qed.

Theorem skip_yaml_whitespace_ok : shf_skip_yaml_whitespace d.
Proof.
  unfold shf_skip_yaml_whitespace. intros F1 F2 s1 s2 H. unfold skip_yaml_whitespace.
  match goal with |- swp _ (?L1 F1 true) (?L2 F2 true) _ _ _ =>
    assert (HL : forall f1 f2 need u1 u2, SH d u1 u2 -> bwp (L1 f1 need) (L2 f2 need) (bpost_al d eq) u1 u2) end.
  { clear s1 s2 H. induction f1 as [|f1 IHf]; intros f2 need s1 s2 H; [exact I|].
    destruct f2 as [|f2]; [apply bwp_oof_r|]. lazy beta iota.
    apply bwp_bind. apply (bwp_look_ch d); [exact H|]. intros u1 u2 HU RU _ _ _.
    bwp_if HU.
    { assert (N0 : nbz (rn u1 0)) by (exact (lit_eq_nbz _ 32%N eq_refl Eb)).
      apply bwp_bind. apply (bwp_skip_blank d); [exact HU|exact N0|]. intros v1 v2 HV _. apply IHf. exact HV. }
    bwp_if HU.
    { apply bwp_bind. apply (bwp_look d); [exact HU|]. intros v1 v2 HV RV _ _ _ _.
      apply bwp_bind. apply (bwp_skip_linebreak d); [exact HV|]. intros w1 w2 HW _.
      apply bwp_bind. apply bwp_flow_level; [exact HW|]. cbv beta.
      apply bwp_bind. destruct (sc_flow_level w1 =? 0)%N.
      - apply bwp_allow_simple_key; [exact HW|]. intros x1 x2 HX _. apply IHf. exact HX.
      - apply bwp_ret. apply IHf. exact HW. }
    bwp_if HU.
    { assert (N0 : nbz (rn u1 0)) by (exact (lit_eq_nbz _ 35%N eq_refl Eb1)).
      apply bwp_bind. apply bwp_in_skip_while_non_breakz; [exact HU|apply nbz_ne; exact N0|]. intros k v1 v2 HV _ _ _ NV.
      apply bwp_bind. apply (bwp_adv_mark d); [exact HV|intros E; contradiction|]. intros w1 w2 HW _. apply IHf. exact HW. }
    destruct need.
    - apply bwp_bind. apply bwp_mark; [exact HU|]. intros _. apply bwp_err_l.
    - apply bwp_ret_bpost_al; [reflexivity|exact HU|]. exact Eb0. }
  apply HL. exact H.
Qed.

Theorem scan_anchor_ok : shf_scan_anchor d.
Proof.
  unfold shf_scan_anchor. intros F1 F2 alias s1 s2 H N0. unfold scan_anchor.
  apply bwp_bind. apply bwp_mark; [exact H|]. intros HM0.
  apply bwp_bind. apply (bwp_skip_non_blank d); [exact H|exact N0|]. intros u1 u2 HU RU.
  assert (NU : rm u1 <> []) by (ne_tl).
  apply bwp_bind.
  match goal with |- swp _ (?L F1 []) (?L F2 []) ?Q _ _ =>
    assert (HL : forall f1 f2 acc v1 v2, SH d v1 v2 -> rm v1 <> [] -> bwp (L f1 acc) (L f2 acc) (bpost d eq) v1 v2) end.
  { induction f1 as [|f1 IH]; intros f2 acc v1 v2 HV NV; [exact I|]. destruct f2 as [|f2]; [apply bwp_oof_r|].
    lazy beta iota. apply bwp_bind. apply (bwp_look_ch d); [exact HV|]. intros w1 w2 HW RW _ _ _.
    assert (NW : rm w1 <> []) by (rewrite RW; exact NV). rewrite (SH_b1_in d _ _ HW NW).
    destruct (is_anchor_char (rn w1 0)) eqn:Ea.
    - assert (Nw : nbz (rn w1 0)) by (nbz_by Ea).
      apply bwp_bind. apply (bwp_skip_non_blank d); [exact HW|exact Nw|]. intros x1 x2 HX RX.
      apply IH; [exact HX|ne_tl].
    - apply bwp_ret_bpost; [reflexivity|exact HW]. }
  eapply bwp_mono; [apply HL; [exact HU|exact NU]|]. intros r1 v1 r2 v2 [<- HV].
  destruct r1 as [|c r]; [apply bwp_err_l|].
  apply bwp_bind. apply bwp_mark; [exact HV|]. intros HM1.
  apply bwp_ret_bpost; [|exact HV]. apply TS_mk. apply SPS_mk; assumption.
Qed.

End Generic.

Print Assumptions skip_ws_to_eol_ok.
Print Assumptions skip_to_next_token_ok.
Print Assumptions skip_yaml_whitespace_ok.
Print Assumptions scan_anchor_ok.
