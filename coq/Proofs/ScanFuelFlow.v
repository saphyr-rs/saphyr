(* Joint proof "the scanner's loops end before their (linear) fuel does" (see SCANFUEL.md): the QUOTED (flow) SCALAR
   family of Model/SScalar.v - read_hex, resolve_escape, consume_nonws, flow_blanks, the main loop of
   scan_flow_scalar and scan_flow_scalar itself.
   - consume_nonws: every iteration that goes round again has consumed at least one character that is really there
     (the character just peeked is not blank/break/NUL): '' (2), an escape sequence (>= 2), an ordinary character (1);
   - flow_blanks: every iteration consumes a blank (1) or a line break (1 or 2) that has just been peeked;
   - the main loop: an iteration is entered only on a non-NUL character (error 71 otherwise); if consume_nonws
     consumed nothing the character in front is a blank, a break or the closing quote: the quote ends the loop, a
     blank/break is consumed by flow_blanks.  So every iteration that goes round again has consumed a character. *)
From Coq Require Import List NArith ZArith Bool Arith Lia.
Import ListNotations.
Require Import Parser SBase SPrim SDir SScalar SFetch ScanLoops ScanFuel ScanFuelPrim.
Local Open Scope nat_scope.

Lemma bbz_cases c : is_blank_or_breakz c = true -> is_z c = false -> is_blank c || is_break c = true.
Proof.
  unfold is_blank_or_breakz, is_breakz. intros H Z. rewrite Z in H. rewrite orb_false_r in H. exact H.
Qed.

(* escapes *)
(* read_hex is structurally recursive on the digit count: no fuel; it does not touch the state *)
Lemma fwp_read_hex start n : forall i acc (Q : N -> fst_ -> Prop) s,
  (forall v, Q v s) -> fwp (read_hex str_ops n i acc start) Q s.
Proof.
  induction n as [|n IH]; intros i acc Q s HQ; cbn [read_hex].
  - apply fwp_ret. apply HQ.
  - apply fwp_bind. apply fwp_peekn. cbv beta. difE E; [apply IH; exact HQ|apply fwp_fail].
Qed.

(* resolve_escape is called with a backslash at offset 0 (all that matters: a character that is really there) *)
Lemma fwp_resolve_escape start (Q : chr -> fst_ -> Prop) s :
  fnth s 0 <> 0%N -> (forall r s', rl s' < rl s -> lk s <= lk s' -> Q r s') -> fwp (resolve_escape str_ops start) Q s.
Proof.
  intros Hz HQ. pose proof (fnth0_nonzero_rl s Hz) as Hpos. unfold resolve_escape. apply fwp_bind. apply fwp_peekn. cbv beta.
  destruct (assocc (fnth s 1) escape_table) as [r|].
  - apply fwp_bind. apply fwp_skip_n_non_blank. intros s1 D1 _ L1. apply fwp_ret. apply HQ; lia.
  - cbv zeta. difE En; [apply fwp_fail|].
    apply fwp_bind. apply fwp_skip_n_non_blank. intros s1 D1 _ L1.
    apply fwp_bind. apply fwp_look_rl. intros s2 _ E2 _ L2 _ _.
    apply fwp_bind. apply fwp_read_hex. intros v.
    difE Ev; [|apply fwp_fail].
    apply fwp_bind. apply fwp_skip_n_non_blank. intros s3 D3 _ L3. apply fwp_ret. apply HQ; lia.
Qed.

(* consume_flow_scalar_non_whitespace_chars *)
Definition quote (single : bool) (c : chr) : bool := (single && (c =? 39)%N) || (negb single && (c =? 34)%N).

(* what consume_nonws leaves behind: either it consumed something, or the input is untouched and the character in
   front is a blank, a break, NUL or the closing quote *)
Definition cn_rel (single : bool) (s s' : fst_) : Prop :=
  rl s' < rl s \/ (frem s' = frem s /\ (is_blank_or_breakz (fnth s 0) = true \/ quote single (fnth s 0) = true)).

Lemma cn_rel_le single s s' : cn_rel single s s' -> rl s' <= rl s.
Proof. intros [H|[H _]]; [lia|rewrite (rl_eq s s' H); lia]. Qed.

Lemma fwp_consume_nonws start fuel : forall single acc (Q : list chr * bool -> fst_ -> Prop) s,
  rl s < fuel ->
  (forall r s', lk s <= lk s' -> cn_rel single s s' -> Q r s') ->
  fwp (consume_nonws str_ops fuel single acc start) Q s.
Proof.
  induction fuel as [|fuel IH]; intros single acc Q s Hf HQ; cbn [consume_nonws]; [lia|].
  apply fwp_bind. apply fwp_look_rl. intros s1 R1 RL1 C1 L1 _ _.
  apply fwp_bind. apply fwp_peek. cbv beta.
  rewrite C1.
  destruct (is_blank_or_breakz (fnth s 0)) eqn:Ebb.
  { apply fwp_ret. apply HQ; [lia|]. right. split; [exact R1|left; exact Ebb]. }
  assert (Hz1 : fnth s1 0 <> 0%N) by (rewrite C1; apply not_blank_or_breakz_nz; exact Ebb).
  pose proof (fnth0_nonzero_rl s1 Hz1) as Hpos.
  apply fwp_bind. apply fwp_peekn. cbv beta.
  difE E1.
  { (* '' *)
    apply fwp_bind. apply fwp_skip_n_non_blank. intros s2 D2 _ L2.
    apply IH; [lia|]. intros r s' Lk' C'. pose proof (cn_rel_le _ _ _ C').
    apply HQ; [lia|left; lia]. }
  difE E2.
  { apply fwp_ret. apply HQ; [lia|]. right. split; [exact R1|right].
    apply andb_true_iff in E2 as [A B]. subst single. unfold quote. cbn [andb orb negb]. rewrite A. reflexivity. }
  difE E3.
  { apply fwp_ret. apply HQ; [lia|]. right. split; [exact R1|right].
    apply andb_true_iff in E3 as [A B]. destruct single; [discriminate B|]. unfold quote. cbn [andb orb negb]. exact A. }
  difE E4.
  { (* escaped line break *)
    apply fwp_bind. apply fwp_look_rl. intros s2 _ RL2 C2 L2 _ _.
    apply fwp_bind. apply fwp_skip_non_blank_real; [rewrite C2; exact Hz1|]. intros s3 D3 _ L3.
    apply fwp_bind. apply fwp_skip_linebreak. intros s4 R4 L4 _. apply fwp_ret.
    apply HQ; [lia|left; lia]. }
  difE E5.
  { (* escape sequence *)
    apply fwp_bind. apply fwp_resolve_escape; [exact Hz1|]. intros r s2 R2 L2.
    apply IH; [lia|]. intros r' s' Lk' C'. pose proof (cn_rel_le _ _ _ C').
    apply HQ; [lia|left; lia]. }
  (* ordinary character *)
  apply fwp_bind. apply fwp_skip_non_blank_real; [exact Hz1|]. intros s2 D2 _ L2.
  apply IH; [lia|]. intros r s' Lk' C'. pose proof (cn_rel_le _ _ _ C').
  apply HQ; [lia|left; lia].
Qed.

(* the blank-consuming loop *)
Lemma fwp_flow_blanks fuel : forall lbl lb tb ws (Q : bool * bool * N * list chr -> fst_ -> Prop) s,
  rl s < fuel ->
  (forall r s', lk s <= lk s' -> rl s' <= rl s ->
     (is_blank (fnth s 0) || is_break (fnth s 0) = true -> rl s' < rl s) -> Q r s') ->
  fwp (flow_blanks str_ops fuel lbl lb tb ws) Q s.
Proof.
  induction fuel as [|fuel IH]; intros lbl lb tb ws Q s Hf HQ; cbn [flow_blanks]; [lia|].
  (* the rest of the loop, entered after something has been consumed *)
  assert (K : forall lbl lb tb ws s1, rl s1 < rl s -> lk s <= lk s1 ->
            fwp (bind (look str_ops 1) (fun _ => flow_blanks str_ops fuel lbl lb tb ws)) Q s1).
  { intros lbl' lb' tb' ws' s1 R1 L1. apply fwp_bind. apply fwp_look_rl. intros s2 _ E2 _ L2 _ _.
    apply IH; [lia|]. intros r s' Lk' Le' _. apply HQ; [lia|lia|intros _; lia]. }
  apply fwp_bind. apply fwp_peek. cbv beta.
  destruct (is_blank (fnth s 0)) eqn:Ebl.
  - pose proof (blank_nz _ Ebl) as Hz.
    destruct lbl.
    + apply fwp_bind. unfold col_lt_indent. apply fwp_gets. cbv beta.
      difE Et.
      { apply fwp_bind. apply fwp_mark. apply fwp_fail. }
      apply fwp_bind. apply fwp_skip_blank_real; [exact Hz|]. intros s1 D1 _ L1. apply K; lia.
    + apply fwp_bind. apply fwp_skip_blank_real; [exact Hz|]. intros s1 D1 _ L1. apply K; lia.
  - destruct (is_break (fnth s 0)) eqn:Eb.
    2:{ apply fwp_ret. apply HQ; [lia|lia|]. cbn [orb]. intros H; discriminate H. }
    apply fwp_bind. apply fwp_look_rl. intros s1 _ E1 _ L1 _ _.
    destruct lbl.
    + apply fwp_bind. apply fwp_skip_break. intros _ s2 R2 L2. apply K; lia.
    + apply fwp_bind. apply fwp_skip_break. intros _ s2 R2 L2. apply K; lia.
Qed.

(* the main loop *)
Lemma fwp_flow_go F single start f : forall acc lb tb ws (Q : list chr -> fst_ -> Prop) s,
  rl s < f -> rl s < F ->
  (forall r s', lk s <= lk s' -> rl s' <= rl s -> Q r s') ->
  fwp (flow_go str_ops F single start f acc lb tb ws) Q s.
Proof.
  induction f as [|f IH]; intros acc lb tb ws Q s Hf HF HQ; cbn [flow_go]; [lia|].
  apply fwp_bind. apply fwp_look_rl. intros s1 _ RL1 _ L1 _ _.
  apply fwp_bind. apply fwp_get.
  apply fwp_bind.
  apply fwp_mono with (Q := fun (_ : bool) s' => s' = s1).
  { difE Ec; [apply fwp_next_is_document_indicator; reflexivity|apply fwp_ret; reflexivity]. }
  intros di s1' ->.
  destruct di; [apply fwp_fail|].
  apply fwp_bind. apply fwp_next_is.
  destruct (is_z (fnth s1 0)) eqn:Ez; [apply fwp_fail|].
  apply fwp_bind. unfold col_lt_indent. apply fwp_gets. cbv beta.
  difE Elt; [apply fwp_fail|].
  apply fwp_bind. apply fwp_consume_nonws; [lia|].
  intros [acc' lbl] s2 L2 C2. cbv beta iota.
  apply fwp_bind. apply fwp_look_ch_rl. intros s3 _ RL3 C3 L3 _ _.
  difE Equ.
  { apply fwp_ret. pose proof (cn_rel_le _ _ _ C2). apply HQ; lia. }
  apply fwp_bind. apply fwp_flow_blanks; [pose proof (cn_rel_le _ _ _ C2); lia|].
  intros [[[lbl' lb'] tb'] ws'] s4 L4 Le4 Lt4. cbv beta iota.
  (* this iteration has consumed at least one character *)
  assert (Hlt : rl s4 < rl s).
  { destruct C2 as [C2|[C2 [Hb|Hq]]].
    - lia.
    - rewrite <- RL1, <- (rl_eq s1 s2 C2), <- RL3. apply Lt4.
      rewrite C3, (fnth_eq s1 s2 0 C2). apply bbz_cases; assumption.
    - exfalso. rewrite (fnth_eq s1 s2 0 C2) in Equ. unfold quote in Hq.
      rewrite Hq in Equ. discriminate Equ. }
  assert (K : forall acc lb tb ws, fwp (flow_go str_ops F single start f acc lb tb ws) Q s4).
  { intros acc0 lb0 tb0 ws0. apply IH; [lia|lia|]. intros r s' Lk' Le'. apply HQ; lia. }
  destruct lbl'; [|apply K].
  difE E1; [apply K|]. difE E2; apply K.
Qed.

(* scan_flow_scalar *)
Section FuelFlow.
Hypothesis skip_ws_to_eol_ok : fuel_skip_ws_to_eol.

Theorem scan_flow_scalar_ok : fuel_scan_flow_scalar.
Proof.
  intros F single s HF Hz. rewrite scan_flow_scalar_eq. unfold fuel_ok in HF.
  apply fwp_bind. apply fwp_mark.
  (* the opening quote *)
  apply fwp_bind. apply fwp_skip_non_blank_real; [exact Hz|]. intros s1 H1 _ L1.
  apply fwp_bind. apply fwp_flow_go; [lia|lia|]. intros str s2 L2 Le2.
  (* the closing quote *)
  apply fwp_bind. apply fwp_skip_non_blank. intros s3 H3 _ L3.
  apply fwp_bind. eapply fwp_mono; [apply skip_ws_to_eol_ok; unfold fuel_ok; lia|].
  intros tw s4 [Le4 L4].
  apply fwp_bind. apply fwp_peek. apply fwp_bind. apply fwp_get. cbv zeta beta.
  difE E; [|apply fwp_fail].
  apply fwp_ret. unfold lt_post. split; lia.
Qed.

End FuelFlow.

Print Assumptions scan_flow_scalar_ok.
