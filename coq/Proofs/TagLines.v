(* C16 — ANY number of %TAG lines at text level: "all %TAG directives of a document are in force together, a
   handle may be declared only once per document" for texts.

   For every list of %TAG lines (each "%TAG" blanks handle blanks prefix LF, of the specification's character
   classes) denoting the directives ds, and every tag text: the run of scanner + parser on

       <line 1> ... <line n> "--- " <tag> " x"

   reports the tag the specification's [expand] gives on the table [decls ds] — all lines in force together — or the
   error "duplicate handle" (site 21) at the beginning of the first line that declares a handle again
   ([text_directives_document]). *)
From Coq Require Import List NArith ZArith Bool Lia.
Import ListNotations.
Require Import Parser TagSpec SBase SPrim SDir SScalar SFetch Pipe Drivers TagRun TagUtf8 TagScanText TagProofs TagPipeline ListKit.
Require JsonProofs.
Open Scope N_scope.
Open Scope mon_scope.

(* 1. The scanner on the directive lines *)
(* a line with its handle and decoded prefix *)
Definition dline := (list N * list N * list N)%type.
Definition dl_text (x : dline) : list N := fst (fst x).
Definition dline_ok (x : dline) : Prop := tag_directive_text (dl_text x) (snd (fst x)) (snd x).

Definition line_end (m : marker) (line : list N) : marker := adv (N.of_nat (length line - 1)) m.
Fixpoint dir_tokens (m : marker) (ls : list dline) : list token :=
  match ls with
  | [] => []
  | x :: r => (mkspan m (line_end m (dl_text x)), TTagDirective (snd (fst x)) (snd x)) :: dir_tokens (nlm (line_end m (dl_text x))) r
  end.
Fixpoint lines_end (m : marker) (ls : list dline) : marker :=
  match ls with
  | [] => m
  | x :: r => lines_end (nlm (line_end m (dl_text x))) r
  end.
Definition lines_text (ls : list dline) : list N := concat (map dl_text ls).

Lemma tag_directive_text_length : forall line dh p, tag_directive_text line dh p -> (9 <= length line)%nat.
Proof.
  intros line dh p H. destruct (tag_directive_text_ok _ _ _ H) as [bl1 [bl2 [ptext [-> [[Hn1 _] HH [Hn2 _] [[Hnp _] _]]]]]].
  rewrite dir_line_length. destruct bl1; [contradiction|]. destruct bl2; [contradiction|]. destruct ptext; [contradiction|].
  inversion HH; cbn [length]; lia.
Qed.

Lemma scan_all_dir_lines : forall F ls, Forall dline_ok ls -> (length (lines_text ls) < F)%nat ->
  forall fuel rest lk i ln w ska tp acc, (length ls <= fuel)%nat ->
  let m := {| m_index := i; m_line := ln; m_col := 0 |} in
  exists lk' w' ska',
    scan_all str_ops F fuel (top (lines_text ls ++ rest) lk m w [] ska tp false) acc
    = scan_all str_ops F (fuel - length ls) (top rest lk' (lines_end m ls) w' [] ska' (tp + N.of_nat (length ls)) false)
        (rev (dir_tokens m ls) ++ acc).
Proof.
  intros F ls HO. induction HO as [|x ls Hx HO IH]; intros HF fuel rest lk i ln w ska tp acc Hfuel m.
  - exists lk, w, ska. cbn [lines_text map concat app length lines_end dir_tokens rev].
    rewrite Nat.sub_0_r, N.add_0_r. reflexivity.
  - unfold lines_text in *. cbn [map concat] in *. rewrite app_length in HF. cbn [length] in Hfuel.
    destruct fuel as [|fuel]; [lia|].
    unfold dline_ok in Hx. destruct x as [[line dh] p]. cbn [dl_text fst snd] in *.
    pose proof (tag_directive_text_length _ _ _ Hx) as HL9.
    destruct (tag_directive_text_ok _ _ _ Hx) as [bl1 [bl2 [ptext [EL [[Hn1 HB1] HH [Hn2 HB2] [HP HDp]]]]]].
    subst line. rewrite dir_line_length in *.
    rewrite <- app_assoc.
    replace (dir_line bl1 dh bl2 ptext ++ concat (map dl_text ls) ++ rest)
      with (s_tag_line ++ bl1 ++ dh ++ bl2 ++ ptext ++ 10 :: concat (map dl_text ls) ++ rest)
      by (unfold dir_line; rewrite <- !app_assoc; reflexivity).
    destruct (fetch_tag_directive F bl1 dh bl2 ptext p (concat (map dl_text ls) ++ rest) lk i ln w ska tp
                Hn1 HB1 HH Hn2 HB2 HDp HP ltac:(lia)) as [lk1 [_ E1]].
    cbv zeta in E1. fold m in E1.
    cbn [scan_all]. rewrite (next_token_top F _ _ _ _ _ _ _ _ _ _ _ _ ltac:(lia) E1 ltac:(discriminate)).
    set (n := N.of_nat (4 + length bl1 + length dh + length bl2 + length ptext)) in *.
    destruct (IH ltac:(lia) fuel rest lk1 (m_index (adv n m) + 1) (m_line (adv n m) + 1) true false (tp + 1)
                ((mkspan m (adv n m), TTagDirective dh p) :: acc) ltac:(lia)) as [lk' [w' [ska' E]]].
    cbv zeta in E.
    change {| m_index := m_index (adv n m) + 1; m_line := m_line (adv n m) + 1; m_col := 0 |} with (nlm (adv n m)) in E.
    exists lk', w', ska'. unfold token in *. rewrite E. cbn [length lines_end dir_tokens rev dl_text fst snd Nat.sub].
    unfold line_end. rewrite dir_line_length.
    replace (4 + length bl1 + length dh + length bl2 + length ptext + 1 - 1)%nat
      with (4 + length bl1 + length dh + length bl2 + length ptext)%nat by lia. fold n.
    rewrite <- app_assoc. cbn [app].
    replace (tp + 1 + N.of_nat (length ls)) with (tp + N.of_nat (S (length ls))) by lia. reflexivity.
Qed.

(* the end mark of the lines is a mark at column 0 *)
Lemma lines_end_col0 : forall ls i ln, exists i' ln',
  lines_end {| m_index := i; m_line := ln; m_col := 0 |} ls = {| m_index := i'; m_line := ln'; m_col := 0 |}.
Proof.
  induction ls as [|x ls IH]; intros i ln; [exists i, ln; reflexivity|].
  cbn [lines_end]. unfold nlm. apply IH.
Qed.

(* the whole token stream *)
Theorem scan_lines_doc : forall F fuel ls ttext h sfx,
  Forall dline_ok ls -> tag_scans F (33 :: ttext) h sfx ->
  (length (lines_text ls) < F)%nat -> (2 <= F)%nat -> (length ls + 6 <= fuel)%nat ->
  scan_all str_ops F fuel (init_sc {| si_chars := lines_text ls ++ doc_line (33 :: ttext); si_look := 0 |}) []
  = ((span_empty m1, TStreamStart) :: dir_tokens m1 ls ++ doc_tokens (lines_end m1 ls) (33 :: ttext) h sfx, SEnded).
Proof.
  intros F fuel ls ttext h sfx HO HS HF HF2 Hfuel. destruct fuel as [|fuel]; [lia|].
  cbn [scan_all]. rewrite next_token_init by lia.
  destruct (scan_all_dir_lines F ls HO HF fuel (doc_line (33 :: ttext)) 1 0 1 true true 1
              [(span_empty m1, TStreamStart)] ltac:(lia)) as [lk' [w' [ska' E]]].
  cbv zeta in E. fold m1 in E. unfold token in *. rewrite E.
  destruct (lines_end_col0 ls 0 1) as [i' [ln' Em]]. fold m1 in Em. rewrite Em.
  rewrite (scan_all_doc_line F (fuel - length ls) ttext h sfx lk' i' ln' w' ska' _ _ HS HF2 ltac:(lia)).
  rewrite rev_app_distr, rev_involutive. cbn [rev app]. reflexivity.
Qed.

(* 2. The parser on the directive tokens *)
Lemma pstep_to_explicit : forall keep t r,
  (match snd t with TTagDirective _ _ | TDocumentStart => True | _ => False end) ->
  state_machine (P keep (t :: r) None [] SImplicitDocumentStart [])
  = explicit_document_start (P keep r (Some t) [] SImplicitDocumentStart []).
Proof. intros keep [sp k] r H. destruct k; try contradiction; reflexivity. Qed.

(* explicit_document_start with every field of the resulting parser (TagProofs.explicit_document_start_spec
   keeps only what C16_document_start needs) *)
Lemma explicit_document_start_full : forall p T run sp rest,
  stream p = run ++ (sp, TDocumentStart) :: rest -> run_ok run -> agree (p_tags p) T ->
  match decls (dirs_of run) with
  | Declared d =>
      exists tags', agree tags' (merge T d) /\
        explicit_document_start p
        = Parser.Ok ((EDocumentStart true, sp),
                     {| p_toks := rest; p_token := None; p_states := SDocumentEnd :: p_states p;
                        p_state := SDocumentContent; p_anchors := p_anchors p; p_anchor_id := p_anchor_id p;
                        p_tags := tags'; p_keep_tags := p_keep_tags p |})
  | DuplicateHandle j => explicit_document_start p = Parser.Err (PErr 21 (mark_of run j))
  | DuplicateYaml j => explicit_document_start p = Parser.Err (PErr 2 (mark_of run j))
  end.
Proof.
  intros p T run sp rest HS HR HA.
  pose proof (process_directives_spec p T run _ HS HR ltac:(reflexivity) HA) as H.
  unfold directives_spec in H. unfold explicit_document_start.
  destruct (decls (dirs_of run)) as [d|j|j].
  - destruct H as [p' [Hr [HA' [Htk [Hts [Hst [Hsts [Han [Hid Hk]]]]]]]]]. rewrite Hr.
    destruct p' as [toks tk sts st an aid tg kp]. cbn in Htk, Hts, Hst, Hsts, Han, Hid, Hk, HA'. subst.
    exists tg. split; [exact HA'|]. reflexivity.
  - rewrite H. reflexivity.
  - rewrite H. reflexivity.
Qed.

Definition dl_dir (x : dline) : directive := DTag (snd (fst x)) (snd x).

Lemma dline_handle_nonempty : forall x, dline_ok x -> snd (fst x) <> [].
Proof.
  intros [[line dh] p] H. unfold dline_ok in H. cbn [dl_text fst snd] in *.
  destruct (tag_directive_text_ok _ _ _ H) as [bl1 [bl2 [ptext [_ [_ HH _ _]]]]]. inversion HH; discriminate.
Qed.

Lemma dir_tokens_run : forall ls m, Forall dline_ok ls ->
  run_ok (dir_tokens m ls) /\ dirs_of (dir_tokens m ls) = map dl_dir ls.
Proof.
  induction ls as [|x ls IH]; intros m HO; [split; [constructor|reflexivity]|].
  inversion HO as [|? ? Hx HO']; subst. destruct (IH (nlm (line_end m (dl_text x))) HO') as [H1 H2].
  pose proof (dline_handle_nonempty x Hx) as Hne.
  destruct x as [[line dh] p]. cbn [dir_tokens dl_text fst snd] in *. destruct dh as [|c dh]; [contradiction|].
  split.
  - constructor; [split; [reflexivity|exact Logic.I]|exact H1].
  - cbn [dirs_of snd dir_of_tok map dl_dir fst]. rewrite H2. reflexivity.
Qed.

(* where the j-th line starts *)
Lemma mark_of_dir_tokens : forall ls m j, (j < length ls)%nat ->
  mark_of (dir_tokens m ls) j = lines_end m (firstn j ls).
Proof.
  induction ls as [|x ls IH]; intros m j Hj; [cbn in Hj; lia|].
  destruct j as [|j]; [reflexivity|]. cbn [length] in Hj. cbn [dir_tokens firstn lines_end].
  rewrite <- IH by lia. reflexivity.
Qed.

Lemma decls_from_bound : forall ds i ys acc j,
  (decls_from i ds ys acc = DuplicateHandle j \/ decls_from i ds ys acc = DuplicateYaml j) -> (j < i + length ds)%nat.
Proof.
  induction ds as [|d ds IH]; intros i ys acc j H; cbn [decls_from length] in *.
  - destruct H; discriminate.
  - destruct d as [a b|h p|].
    + destruct ys.
      * destruct H as [H|H]; inversion H; subst; lia.
      * apply IH in H. lia.
    + destruct (lookup h acc).
      * destruct H as [H|H]; inversion H; subst; lia.
      * apply IH in H. lia.
    + apply IH in H. lia.
Qed.

(* 3. Composition *)
Definition lines_outcome (ls : list dline) (h sfx : list N) : list (option (list N * list N)) * pend :=
  match decls (map dl_dir ls) with
  | Declared d => tag_outcome (expand d h sfx) (mk_tag (lines_end m1 ls))
  | DuplicateHandle j => ([], PParseErr 21 (lines_end m1 (firstn j ls)))
  | DuplicateYaml j => ([], PParseErr 2 (lines_end m1 (firstn j ls)))
  end.

Lemma lines_text_length : forall ls, Forall dline_ok ls -> (length ls <= length (lines_text ls))%nat.
Proof.
  intros ls HO. induction HO as [|x ls Hx HO IH]; [cbn; lia|].
  unfold lines_text in *. cbn [map concat length]. rewrite app_length.
  pose proof (tag_directive_text_length _ _ _ Hx). lia.
Qed.

Theorem tags_of_lines_doc : forall keep ls ttext h sfx,
  Forall dline_ok ls -> tag_spelling ttext h sfx ->
  tags_of_run keep (lines_text ls ++ doc_line ttext) = lines_outcome ls h sfx.
Proof.
  intros keep ls ttext h sfx HO HS.
  pose proof (lines_text_length ls HO) as HLl.
  set (F := (2 * length (lines_text ls ++ doc_line ttext) + 10)%nat).
  assert (HFl : (length (lines_text ls) + (6 + length ttext) + 10 <= F)%nat)
    by (unfold F; rewrite app_length, doc_line_length; lia).
  destruct (tag_spelling_scans ttext h sfx F HS ltac:(lia)) as [t' [-> [HSc HK]]].
  unfold tags_of_run, run_str_keep, scan_str. fold F.
  rewrite (scan_lines_doc F (4 * F + 20) ls t' h sfx HO HSc ltac:(lia) ltac:(lia) ltac:(lia)).
  unfold parse_tokens.
  match goal with |- context [parse_all ?f _ _ _] =>
    assert (Hlen0 : (8 <= f)%nat) by (cbn [length]; lia); generalize f Hlen0; clear Hlen0 end.
  intros fuel0 Hlen. destruct fuel0 as [|[|fuel]]; try lia.
  fold (P keep ((span_empty m1, TStreamStart) :: dir_tokens m1 ls ++ doc_tokens (lines_end m1 ls) (33 :: t') h sfx)
          None [] SStreamStart []).
  erewrite parse_all_step; [|discriminate|apply (JsonProofs.stream_start_step [] 1 [] keep)].
  destruct (dir_tokens_run ls m1 HO) as [HR HD].
  set (md := lines_end m1 ls) in *.
  assert (Hfirst : exists t r, dir_tokens m1 ls ++ doc_tokens md (33 :: t') h sfx = t :: r /\
            match snd t with TTagDirective _ _ | TDocumentStart => True | _ => False end).
  { destruct ls as [|x ls']; [eexists; eexists; split; [reflexivity|exact Logic.I]|].
    eexists; eexists; split; [reflexivity|exact Logic.I]. }
  destruct Hfirst as [t0 [r0 [E0 Ht0]]].
  pose proof (explicit_document_start_full (P keep r0 (Some t0) [] SImplicitDocumentStart []) [] (dir_tokens m1 ls)
                (spn md (adv 3 md))
                [(mkspan (mk_tag md) (mk_tag_end md (33 :: t')), TTag h sfx);
                 (mkspan (mk_scalar md (33 :: t')) (mk_scalar_end md (33 :: t')), TScalar Plain [120]);
                 (span_empty (mk_end md (33 :: t')), TStreamEnd)]
                ltac:(cbn [stream P p_token p_toks]; rewrite <- E0; reflexivity) HR agree_nil) as HX.
  rewrite HD in HX. unfold lines_outcome. fold md. rewrite E0.
  destruct (decls (map dl_dir ls)) as [d|j|j] eqn:ED.
  - destruct HX as [tags' [HA EX]].
    erewrite parse_all_step; [|discriminate|exact (eq_trans (pstep_to_explicit keep t0 r0 Ht0) EX)].
    cbn [P p_states p_anchors p_anchor_id p_keep_tags].
    fold (P keep [(mkspan (mk_tag md) (mk_tag_end md (33 :: t')), TTag h sfx);
                  (mkspan (mk_scalar md (33 :: t')) (mk_scalar_end md (33 :: t')), TScalar Plain [120]);
                  (span_empty (mk_end md (33 :: t')), TStreamEnd)] None [SDocumentEnd] SDocumentContent tags').
    rewrite (parse_from_content keep fuel _ _ _ h sfx [120] tags' (merge [] d) _ HA HK ltac:(lia)).
    unfold merge. rewrite app_nil_r.
    cbn [sp_start mkspan rev app node_tags tag_of_event].
    destruct (tag_outcome (expand d h sfx) (mk_tag md)); reflexivity.
  - erewrite parse_all_err; [|discriminate|exact (eq_trans (pstep_to_explicit keep t0 r0 Ht0) HX)].
    cbn [rev app fst snd node_tags tag_of_event].
    assert (Hj : (j < length ls)%nat).
    { pose proof (decls_from_bound (map dl_dir ls) 0 false [] j (or_introl ED)) as HB. rewrite map_length in HB. lia. }
    rewrite (mark_of_dir_tokens ls m1 j Hj). reflexivity.
  - erewrite parse_all_err; [|discriminate|exact (eq_trans (pstep_to_explicit keep t0 r0 Ht0) HX)].
    cbn [rev app fst snd node_tags tag_of_event].
    assert (Hj : (j < length ls)%nat).
    { pose proof (decls_from_bound (map dl_dir ls) 0 false [] j (or_intror ED)) as HB. rewrite map_length in HB. lia. }
    rewrite (mark_of_dir_tokens ls m1 j Hj). reflexivity.
Qed.

(* 4. In the words of the specification, with the marks as numbers *)
Lemma lines_end_arith : forall ls i ln, Forall dline_ok ls ->
  lines_end {| m_index := i; m_line := ln; m_col := 0 |} ls
  = {| m_index := i + N.of_nat (length (lines_text ls)); m_line := ln + N.of_nat (length ls); m_col := 0 |}.
Proof.
  induction ls as [|x ls IH]; intros i ln HO.
  - cbn [lines_end lines_text map concat length]. f_equal; lia.
  - inversion HO as [|? ? Hx HO']; subst. cbn [lines_end]. unfold nlm, line_end, adv. cbn [m_index m_line m_col].
    rewrite IH by exact HO'. unfold lines_text. cbn [map concat length]. rewrite app_length.
    pose proof (tag_directive_text_length _ _ _ Hx). f_equal; lia.
Qed.

(* where the j-th line starts, and where the tag of the document line starts *)
Definition line_start (lines : list (list N)) (j : nat) : marker :=
  {| m_index := N.of_nat (length (concat (firstn j lines))); m_line := 1 + N.of_nat j; m_col := 0 |}.
Definition tag_mark_lines (lines : list (list N)) : marker :=
  {| m_index := N.of_nat (length (concat lines)) + 4; m_line := 1 + N.of_nat (length lines); m_col := 4 |}.

Lemma lines_of_spec : forall lines ds, Forall2 directive_line_text lines ds ->
  exists ls, map dl_text ls = lines /\ map dl_dir ls = ds /\ Forall dline_ok ls.
Proof.
  intros lines ds H. induction H as [|line d lines ds Hd H IH]; [exists []; split; [reflexivity|]; split; [reflexivity|constructor]|].
  destruct IH as [ls [E1 [E2 HO]]]. inversion Hd as [line0 dh p HT]; subst.
  exists ((line, dh, p) :: ls). split; [reflexivity|]. split; [reflexivity|]. constructor; [exact HT|exact HO].
Qed.

Lemma firstn_all_le : forall {A} (l : list A) j, (j <= length l)%nat -> length (firstn j l) = j.
Proof. intros A l j H. rewrite firstn_length. lia. Qed.

(* THE theorem for any number of %TAG lines *)
Theorem text_directives_document : forall keep lines ds ttext h sfx,
  Forall2 directive_line_text lines ds -> tag_text ttext h sfx ->
  tags_of_run keep (concat lines ++ doc_line ttext)
  = match decls ds with
    | Declared d => tag_outcome (expand d h sfx) (tag_mark_lines lines)
    | DuplicateHandle j => ([], PParseErr 21 (line_start lines j))
    | DuplicateYaml j => ([], PParseErr 2 (line_start lines j))
    end.
Proof.
  intros keep lines ds ttext h sfx HL HT.
  destruct (lines_of_spec lines ds HL) as [ls [E1 [E2 HO]]]. subst lines ds.
  change (concat (map dl_text ls)) with (lines_text ls).
  rewrite (tags_of_lines_doc keep ls ttext h sfx HO (tag_text_spelling _ _ _ HT)). unfold lines_outcome.
  assert (HF : forall j, (j <= length ls)%nat -> lines_end m1 (firstn j ls) = line_start (map dl_text ls) j).
  { intros j Hj. unfold m1. rewrite lines_end_arith.
    - unfold line_start, lines_text. rewrite firstn_map, N.add_0_l, firstn_all_le by exact Hj. reflexivity.
    - apply Forall_forall. intros x Hx. rewrite Forall_forall in HO. apply HO. eapply in_firstn; exact Hx. }
  destruct (decls (map dl_dir ls)) as [d|j|j] eqn:ED.
  - f_equal. unfold mk_tag, m1. rewrite lines_end_arith by exact HO. unfold tag_mark_lines, adv. cbn [m_index m_line m_col].
    unfold lines_text. rewrite map_length. f_equal; lia.
  - assert (Hj : (j < length ls)%nat).
    { pose proof (decls_from_bound (map dl_dir ls) 0 false [] j (or_introl ED)) as HB. rewrite map_length in HB. lia. }
    rewrite HF by lia. reflexivity.
  - assert (Hj : (j < length ls)%nat).
    { pose proof (decls_from_bound (map dl_dir ls) 0 false [] j (or_intror ED)) as HB. rewrite map_length in HB. lia. }
    rewrite HF by lia. reflexivity.
Qed.

(* a named handle that the table declares resolves to its prefix *)
Lemma expand_named : forall T name p sfx,
  lookup (named_handle name) T = Some p -> expand T (named_handle name) sfx = Some (p, sfx).
Proof.
  intros T name p sfx HL. unfold expand. unfold named_handle in *. cbn [kind_of].
  destruct (name ++ [33]) as [|b r] eqn:E; [destruct name; discriminate|].
  assert (HB : last (b :: r) 0 = 33) by (rewrite <- E; apply last_app1).
  unfold bang. cbn [N.eqb Pos.eqb andb]. rewrite HB. cbn [N.eqb Pos.eqb].
  destruct r; cbn [or_default]; rewrite HL; reflexivity.
Qed.

(* two corollaries in plain words *)
(* (1) ALL lines are in force together: whichever line declares the handle of the tag, its prefix is used *)
Theorem text_any_line_resolves : forall keep lines ds name p suffix t d,
  Forall2 directive_line_text lines ds -> decls ds = Declared d -> declared_prefix (named_handle name) ds = Some p ->
  tag_text (named_text name suffix) (named_handle name) t ->
  tags_of_run keep (concat lines ++ doc_line (named_text name suffix)) = ([Some (p, t)], PDone).
Proof.
  intros keep lines ds name p suffix t d HL HD HP HT.
  rewrite (text_directives_document keep lines ds _ _ t HL HT), HD.
  pose proof (decls_table ds d HD (named_handle name)) as HLk. rewrite HP in HLk.
  rewrite (expand_named d name p t HLk). reflexivity.
Qed.

(* (2) a handle declared twice is an error at the second declaration *)
Theorem text_duplicate_handle : forall keep lines ds ttext h sfx j,
  Forall2 directive_line_text lines ds -> decls ds = DuplicateHandle j -> tag_text ttext h sfx ->
  tags_of_run keep (concat lines ++ doc_line ttext) = ([], PParseErr 21 (line_start lines j)).
Proof.
  intros keep lines ds ttext h sfx j HL HD HT. rewrite (text_directives_document keep lines ds _ _ _ HL HT), HD. reflexivity.
Qed.

(* 5. No %TAG line, one %TAG line *)
Theorem text_plain_document : forall keep ttext h sfx,
  tag_text ttext h sfx ->
  tags_of_run keep (doc_line ttext) = tag_outcome (expand [] h sfx) (tag_mark []).
Proof. intros keep ttext h sfx H. exact (text_directives_document keep [] [] ttext h sfx (Forall2_nil _) H). Qed.

Theorem text_directive_document : forall keep line dh p ttext h sfx,
  tag_directive_text line dh p -> tag_text ttext h sfx ->
  tags_of_run keep (line ++ doc_line ttext) = tag_outcome (expand [(dh, p)] h sfx) (tag_mark line).
Proof.
  intros keep line dh p ttext h sfx HD HT.
  pose proof (text_directives_document keep [line] [DTag dh p] ttext h sfx
                (Forall2_cons _ _ (dlt _ _ _ HD) (Forall2_nil _)) HT) as H.
  cbn [concat] in H. rewrite app_nil_r in H. rewrite H.
  change (decls [DTag dh p]) with (Declared [(dh, p)]). cbv iota. f_equal.
  unfold tag_mark_lines, tag_mark. cbn [concat length]. rewrite app_nil_r.
  pose proof (tag_directive_text_length _ _ _ HD) as HL. destruct line; [cbn [length] in HL; lia|reflexivity].
Qed.

(* the headline: a named (or secondary) handle declared by the %TAG line of the document resolves to the decoded
   prefix followed by the decoded suffix *)
Theorem text_named_handle_resolves : forall keep line name p suffix t,
  tag_directive_text line (named_handle name) p ->
  tag_text (named_text name suffix) (named_handle name) t ->
  tags_of_run keep (line ++ doc_line (named_text name suffix)) = ([Some (p, t)], PDone).
Proof.
  intros keep line name p suffix t HD HT.
  rewrite (text_directive_document keep line _ p _ _ t HD HT), (expand_named _ name p t); [reflexivity|].
  cbn [lookup]. rewrite text_eqb_refl. reflexivity.
Qed.

Theorem text_primary_handle_resolves : forall keep line p suffix t,
  tag_directive_text line [bang] p -> tag_text (local_text suffix) [bang] t ->
  tags_of_run keep (line ++ doc_line (local_text suffix)) = ([Some (p, t)], PDone).
Proof.
  intros keep line p suffix t HD HT. rewrite (text_directive_document keep line _ p _ _ t HD HT). reflexivity.
Qed.

(* the scanner half on the whole text: the exact token stream *)
Theorem token_stream_directive_document : forall line dh p ttext h sfx,
  tag_directive_text line dh p -> tag_text ttext h sfx ->
  let md := nlm (adv (N.of_nat (length line - 1)) m1) in
  scan_str (line ++ doc_line ttext)
  = ((span_empty m1, TStreamStart)
     :: (mkspan m1 (adv (N.of_nat (length line - 1)) m1), TTagDirective dh p)
     :: doc_tokens md ttext h sfx, SEnded).
Proof.
  intros line dh p ttext h sfx HD HT md. unfold scan_str.
  set (F := (2 * length (line ++ doc_line ttext) + 10)%nat).
  assert (HF : (length line + (6 + length ttext) + 10 <= F)%nat)
    by (unfold F; rewrite app_length, doc_line_length; lia).
  destruct (tag_spelling_scans ttext h sfx F (tag_text_spelling _ _ _ HT) ltac:(lia)) as [t' [-> [HSc _]]].
  pose proof (scan_lines_doc F (4 * F + 20) [(line, dh, p)] t' h sfx (Forall_cons (line, dh, p) HD (Forall_nil _)) HSc) as H.
  unfold lines_text in H. cbn [map concat dl_text fst length] in H. rewrite app_nil_r in H.
  exact (H ltac:(lia) ltac:(lia) ltac:(lia)).
Qed.

Theorem token_stream_plain_document : forall ttext h sfx,
  tag_text ttext h sfx ->
  scan_str (doc_line ttext) = ((span_empty m1, TStreamStart) :: doc_tokens m1 ttext h sfx, SEnded).
Proof.
  intros ttext h sfx HT. unfold scan_str.
  set (F := (2 * length (doc_line ttext) + 10)%nat).
  destruct (tag_spelling_scans ttext h sfx F (tag_text_spelling _ _ _ HT) ltac:(unfold F; rewrite doc_line_length; lia))
    as [t' [-> [HSc _]]].
  exact (scan_lines_doc F (4 * F + 20) [] t' h sfx (Forall_nil _) HSc ltac:(cbn [lines_text map concat length]; lia)
           ltac:(lia) ltac:(cbn [length]; lia)).
Qed.
