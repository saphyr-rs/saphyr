(* C06 -- rejection lemmas, part 3: symbolic runs of the scanner model over one-line flow text whose words are arbitrary
   (lower-case letters, any length), from fully described scanner states.
   [St ...] is a scanner state (behind StreamStart, not at the end, nothing buffered for the iterator) given by ALL its
   fields; the step lemmas are equations  fetch_next_token F (St ...) = Ok (tt, St ...)  /  = Err ...  with the
   remaining input, the marks and the word symbolic.  Used for: the family of /repo 57aa316 (every text "[ k: ..." whose
   key word k is longer than 1024 characters is rejected with site 98 at the ':'), and for flat flow sequences with any
   number of words closed by '}' (/repo 88700d3: scan error 48; induction over the words in rounds of the iterator's refill
   loop) -- the swapped-closer damage operator of the full property on every flat sequence. *)
From Coq Require Import List NArith ZArith Bool Lia.
Import ListNotations.
Require Import Parser SBase SPrim SDir SScalar SFetch Pipe SInv Grammar C02base C02rest C02tail C02run DocReset RejectProofs.
Require Import DispatchTie RejectScan ScalarKit.

Arguments N.add : simpl never.
Arguments N.sub : simpl never.
Arguments N.mul : simpl never.
Arguments N.eqb : simpl never.
Arguments N.ltb : simpl never.
Arguments N.leb : simpl never.
Arguments Nat.max : simpl never.
Open Scope N_scope.
Open Scope mon_scope.

(* a started scanner state, all fields given *)
Definition St (chars : list N) (lk : nat) (mk : marker) (toks : list token) (adj : N) (ska : bool)
              (sks : list simple_key) (ind : Z) (inds : list indent_rec) (fl tp : N) (lws : bool) (ifms : list ims) : sc strin :=
  {| sc_in := {| si_chars := chars; si_look := lk |}; sc_mark := mk; sc_tokens := toks;
     sc_stream_start := true; sc_stream_end := false; sc_adjacent := adj; sc_ska := ska; sc_sks := sks;
     sc_indent := ind; sc_indents := inds; sc_flow_level := fl; sc_tokens_parsed := tp;
     sc_token_available := false; sc_lws := lws; sc_ifms := ifms |}.

(* lower-case letters and the character tests of the scanner *)
Definition lower (c : N) : Prop := 97 <= c /\ c <= 122.

Lemma lower_eqb c k : lower c -> (k < 97 \/ 122 < k) -> (c =? k) = false.
Proof. intros [A B] H. apply N.eqb_neq. lia. Qed.

Lemma lower_not_skipped c : lower c -> not_skipped c.
Proof. intros [A B]. repeat split; lia. Qed.
Lemma lower_flow c : lower c -> is_flow c = false.
Proof. intros H. unfold is_flow. rewrite !(lower_eqb c) by (assumption || lia). reflexivity. Qed.
Lemma lower_blank c : lower c -> is_blank c = false.
Proof. intros H. unfold is_blank. rewrite !(lower_eqb c) by (assumption || lia). reflexivity. Qed.
Lemma lower_break c : lower c -> is_break c = false.
Proof. intros H. unfold is_break. rewrite !(lower_eqb c) by (assumption || lia). reflexivity. Qed.
Lemma lower_blank_or_breakz c : lower c -> is_blank_or_breakz c = false.
Proof.
  intros H. unfold is_blank_or_breakz, is_breakz, is_z.
  rewrite (lower_blank c H), (lower_break c H), (lower_eqb c 0 H) by lia. reflexivity.
Qed.

Lemma lower_word_lower w : lower_word w -> Forall lower w.
Proof. intros [_ H]. exact H. Qed.

(* ---- [fetch_next_token] in flow context on a character that starts a token: exactly [dispatch], in the state whose
        lookahead counter went up to 4 ---- *)
Definition ahead (s : sc strin) (n : nat) : sc strin :=
  set_in {| si_chars := chars_of s; si_look := Nat.max (si_look (sc_in s)) n |} s.

Lemma fetch_next_token_flow F (s : sc strin) :
  sc_stream_start s = true -> (0 < F)%nat -> sc_flow_level s <> 0 ->
  not_skipped (nth 0 (chars_of s) 0) -> no_marker_start s (nth 0 (chars_of s) 0) ->
  fetch_next_token str_ops F s
  = dispatch F (ahead (set_sks (sc_sks s) (looked (looked s 1) 1)) 4) (ahead (set_sks (sc_sks s) (looked (looked s 1) 1)) 4).
Proof.
  intros HSS HF HFL HN HM. rewrite (fetch_next_token_rest F s HSS HF HN).
  exact (fetch_rest_flow F (looked (looked s 1) 1) HFL HM).
Qed.

(* a lower-case letter starts a plain scalar *)
Lemma dispatch_lower F (s : sc strin) :
  lower (nth 0 (chars_of s) 0) -> (sc_indent s <= Z.of_N (m_col (sc_mark s)))%Z ->
  dispatch F s s = fetch_plain_scalar str_ops F s.
Proof.
  intros [A B] HC. rewrite (dispatch_run F s HC), dispatch_default; [reflexivity|].
  cbn [In]. lia.
Qed.

(* ---- where a plain scalar ends without a blank: at ':' followed by a blank / break / end (in flow context also by a flow
        indicator), and in flow context at a flow indicator ---- *)
Definition ends_word (fl : N) (d : N) (rest : list N) : Prop :=
  is_blank_or_breakz d = false
  /\ (((d =? 58) && (is_blank_or_breakz (nth 0 rest 0) || ((0 <? fl) && is_flow (nth 0 rest 0)))) || ((0 <? fl) && is_flow d)) = true.

Lemma ends_word_colon_blank fl rest : ends_word fl 58 (32 :: rest).
Proof. split; reflexivity. Qed.
Lemma ends_word_flow fl d rest : fl <> 0 -> is_flow d = true -> ends_word fl d rest.
Proof.
  intros HFL HD. assert (E : (0 <? fl) = true) by (apply N.ltb_lt; lia). split.
  - unfold is_flow in HD. unfold is_blank_or_breakz, is_blank, is_breakz, is_break, is_z.
    repeat match type of HD with (_ || _) = true => apply orb_prop in HD; destruct HD as [HD|HD] end;
      apply N.eqb_eq in HD; subst d; reflexivity.
  - rewrite E, HD. cbn [andb]. apply orb_true_r.
Qed.
Lemma ends_word_not_blank fl d rest : ends_word fl d rest -> is_blank d || is_break d = false.
Proof.
  intros [H _]. unfold is_blank_or_breakz, is_breakz in H.
  destruct (is_blank d); [discriminate|]. destruct (is_break d); [discriminate|]. reflexivity.
Qed.

(* the chunk loop of a plain scalar over a run of lower-case letters up to such an end *)
Lemma plain_chunk_word w : forall fuel j acc lk mk toks adj ska sks ind inds fl tp ifms d rest,
  Forall lower w -> ends_word fl d rest -> (2 * length w + 2 <= fuel)%nat ->
  exists lk',
    plain_chunk str_ops fuel j acc (St (w ++ d :: rest) lk mk toks adj ska sks ind inds fl tp false ifms)
    = Ok (rev w ++ acc, St (d :: rest) lk' (adv (N.of_nat (length w)) mk) toks adj ska sks ind inds fl tp false ifms).
Proof.
  induction w as [|c w IH]; intros fuel j acc lk mk toks adj ska sks ind inds fl tp ifms d rest HW HE HF.
  - cbn [app length rev N.of_nat]. rewrite adv_0.
    assert (BASE : forall fuel0 j0 lk0, (Nat.leb (bufmaxlen str_ops - 1) j0) = false ->
              plain_chunk str_ops (S fuel0) j0 acc (St (d :: rest) lk0 mk toks adj ska sks ind inds fl tp false ifms)
              = Ok (acc, St (d :: rest) lk0 mk toks adj ska sks ind inds fl tp false ifms)).
    { intros fuel0 j0 lk0 HJ. destruct HE as [HE1 HE2]. cbn [plain_chunk]. rewrite HJ.
      unfold bind at 1, next_is at 1, bind at 1, peek at 1, peekn at 1. cbn [peek_nth str_ops St sc_in si_chars nth].
      unfold ret at 1. rewrite HE1.
      unfold bind at 1, get at 1.
      unfold bind at 1. unfold next_can_be_plain_scalar at 1.
      unfold bind at 1, peekn at 1. cbn [peek_nth str_ops St sc_in si_chars nth].
      unfold bind at 1, peek at 1, peekn at 1. cbn [peek_nth str_ops St sc_in si_chars nth sc_flow_level].
      unfold chr in *.
      destruct ((d =? 58) && (is_blank_or_breakz (nth 0 rest 0) || ((0 <? fl) && is_flow (nth 0 rest 0)))) eqn:E1.
      - unfold ret at 1. cbn [orb negb]. reflexivity.
      - cbn [orb] in HE2. rewrite HE2. unfold ret at 1. cbn [orb negb]. reflexivity. }
    destruct fuel as [|fuel]; [cbn in HF; lia|].
    destruct (Nat.leb (bufmaxlen str_ops - 1) j) eqn:EJ.
    + cbn [plain_chunk]. rewrite EJ.
      unfold bind at 1, look at 1. cbn [lookahead str_ops St sc_in si_chars si_look set_in upd].
      destruct fuel as [|fuel]; [cbn in HF; lia|].
      eexists. apply (BASE fuel 0%nat). reflexivity.
    + eexists. apply (BASE fuel j lk EJ).
  - inversion HW as [|x y Hc HW']; subst.
    cbn [app length rev]. rewrite Nat2N.inj_succ, <- N.add_1_l, <- adv_adv, <- app_assoc. cbn [app].
    assert (STEP : forall fuel0 j0 lk0, (2 * length w + 2 <= fuel0)%nat -> (Nat.leb (bufmaxlen str_ops - 1) j0) = false ->
              exists lk',
                plain_chunk str_ops (S fuel0) j0 acc (St (c :: w ++ d :: rest) lk0 mk toks adj ska sks ind inds fl tp false ifms)
                = Ok (rev w ++ c :: acc, St (d :: rest) lk' (adv (N.of_nat (length w)) (adv 1 mk)) toks adj ska sks ind inds fl tp false ifms)).
    { intros fuel0 j0 lk0 HF0 HJ. cbn [plain_chunk]. rewrite HJ.
      unfold bind at 1, next_is at 1, bind at 1, peek at 1, peekn at 1. cbn [peek_nth str_ops St sc_in si_chars nth].
      unfold ret at 1. rewrite (lower_blank_or_breakz c Hc).
      unfold bind at 1, get at 1.
      unfold bind at 1. unfold next_can_be_plain_scalar at 1.
      unfold bind at 1, peekn at 1. cbn [peek_nth str_ops St sc_in si_chars].
      unfold bind at 1, peek at 1, peekn at 1. cbn [peek_nth str_ops St sc_in si_chars nth].
      rewrite (lower_eqb c 58 Hc) by lia. cbn [andb]. rewrite (lower_flow c Hc), andb_false_r.
      unfold ret at 1. cbn [orb negb].
      unfold bind at 1, peek at 1, peekn at 1. cbn [peek_nth str_ops St sc_in si_chars nth].
      unfold bind at 1. unfold skip_non_blank at 1, bind at 1, in_skip at 1, modify at 1.
      unfold bind at 1, adv_mark at 1, modify at 1. unfold modify at 1.
      destruct (IH fuel0 (S j0) (c :: acc) lk0 (adv 1 mk) toks adj ska sks ind inds fl tp ifms d rest HW' HE HF0) as (lk' & E).
      exists lk'. exact E. }
    destruct fuel as [|fuel]; [cbn in HF; lia|].
    destruct (Nat.leb (bufmaxlen str_ops - 1) j) eqn:EJ.
    + cbn [plain_chunk]. rewrite EJ.
      unfold bind at 1, look at 1. cbn [lookahead str_ops St sc_in si_chars si_look set_in upd].
      destruct fuel as [|fuel]; [cbn in HF; lia|].
      apply (STEP fuel 0%nat); [cbn [length] in HF; lia | reflexivity].
    + apply (STEP fuel j lk); [cbn [length] in HF; lia | exact EJ].
Qed.

Definition top_is_block (inds : list indent_rec) : Prop := forall i r, inds = i :: r -> in_needs_block_end i = true.

Lemma unroll_nb_block inds ind : top_is_block inds -> unroll_nb inds ind = (ind, inds).
Proof. intros H. destruct inds as [|i r]; [reflexivity|]. cbn [unroll_nb]. rewrite (H i r eq_refl). reflexivity. Qed.

Ltac st_norm :=
  cbn [St set_in set_mark set_tokens set_flags set_ska set_lws set_adj set_ta set_ss set_se set_struct set_sks set_indent
       set_fl set_tp set_ifms upd sc_in sc_mark sc_tokens sc_stream_start sc_stream_end sc_adjacent sc_ska sc_sks sc_indent
       sc_indents sc_flow_level sc_tokens_parsed sc_token_available sc_lws sc_ifms si_chars si_look
       lookahead peek_nth skip1 str_ops nth tl ahead looked with_chars].

(* a plain scalar that is one lower-case word, ended as described by [ends_word] (any context; the line is not a document marker line
        because it does not start in column 0 or the scanner is inside the line: lws = false) *)
Lemma scan_plain_word F c w lk mk toks adj ska sks ind inds fl tp ifms d rest :
  lower c -> Forall lower w -> ends_word fl d rest -> top_is_block inds -> (ind + 1 <= Z.of_N (m_col mk))%Z ->
  (2 * length w + 4 <= F)%nat ->
  exists lk',
    scan_plain_scalar str_ops F (St (c :: w ++ d :: rest) lk mk toks adj ska sks ind inds fl tp false ifms)
    = Ok (({| sp_start := mk; sp_end := adv (N.of_nat (S (length w))) mk |}, TScalar Plain (c :: w)),
          St (d :: rest) lk' (adv (N.of_nat (S (length w))) mk) toks adj ska sks ind inds fl tp false ifms).
Proof.
  intros Hc HW HE HB HI HF.
  destruct F as [|F0]; [lia|].
  unfold scan_plain_scalar.
  unfold bind at 1. unfold unroll_non_block_indents at 1, modify at 1.
  st_norm. rewrite (unroll_nb_block inds ind HB).
  unfold bind at 1, get at 1. cbv zeta. st_norm.
  assert (E75 : (0 <? fl) && (Z.of_N (m_col mk) <? ind + 1)%Z = false).
  { assert (E : (Z.of_N (m_col mk) <? ind + 1)%Z = false) by (apply Z.ltb_ge; lia). rewrite E. apply andb_false_r. }
  rewrite E75.
  (* the first iteration of the outer loop *)
  unfold bind at 1.
  unfold bind at 1, look at 1. st_norm.
  unfold bind at 1, get at 1. st_norm. cbn [andb]. unfold bind at 1, ret at 1.
  unfold bind at 1, peek at 1, peekn at 1. st_norm.
  rewrite (lower_eqb c 35 Hc) by lia. cbn [orb].
  unfold bind at 1, peekn at 1. st_norm.
  rewrite (lower_eqb c 45 Hc) by lia. rewrite !andb_false_r. cbn [andb].
  rewrite (lower_blank_or_breakz c Hc).
  unfold bind at 1. unfold next_can_be_plain_scalar at 1.
  unfold bind at 1, peekn at 1. st_norm.
  unfold bind at 1, peek at 1, peekn at 1. st_norm.
  rewrite (lower_eqb c 58 Hc) by lia. cbn [andb]. rewrite (lower_flow c Hc), andb_false_r.
  unfold ret at 1.
  unfold bind at 1. unfold bind at 1, modify at 1.
  unfold bind at 1. unfold skip_non_blank at 1, bind at 1, in_skip at 1, modify at 1.
  unfold bind at 1, adv_mark at 1, modify at 1. unfold modify at 1.
  unfold bind at 1, look at 1. st_norm.
  cbn [app].
  destruct (plain_chunk_word w (S F0) 0%nat [c] (Nat.max (Nat.max lk 4) (bufmaxlen str_ops)) (adv 1 mk) toks adj ska sks ind inds fl tp ifms d rest HW HE ltac:(lia))
    as (lk1 & E1).
  match goal with |- context [bind (plain_chunk str_ops (S F0) 0 [c]) ?f ?st] =>
    change (bind (plain_chunk str_ops (S F0) 0 [c]) f st)
      with (bind (plain_chunk str_ops (S F0) 0 [c]) f
              (St (w ++ d :: rest) (Nat.max (Nat.max lk 4) (bufmaxlen str_ops)) (adv 1 mk) toks adj ska sks ind inds fl tp false ifms))
  end.
  rewrite (bind_Ok _ _ _ _ _ E1).
  unfold bind at 1, mark at 1, gets at 1. unfold ret at 1. st_norm.
  unfold bind at 1, peek at 1, peekn at 1. st_norm.
  rewrite (ends_word_not_blank fl d rest HE). cbn [negb]. unfold ret at 1.
  unfold bind at 1, get at 1. st_norm. unfold bind at 1, ret at 1. cbn [fst snd].
  exists lk1.
  unfold chr in *.
  assert (RV : rev (rev w ++ [c]) = c :: w) by (rewrite rev_app_distr, rev_involutive; reflexivity).
  rewrite RV.
  rewrite adv_adv. replace (1 + N.of_nat (length w)) with (N.of_nat (S (length w))) by lia.
  destruct (rev w ++ [c]) as [|x l] eqn:E; [apply app_eq_nil in E; destruct E; discriminate | reflexivity].
Qed.

Definition word_key (tp : N) (toks : list token) (mk : marker) : simple_key :=
  {| sk_possible := true; sk_required := false; sk_token_number := tp + N.of_nat (length toks); sk_mark := mk |}.
Definition word_token (c : N) (w : list N) (mk : marker) : token :=
  ({| sp_start := mk; sp_end := adv (N.of_nat (S (length w))) mk |}, TScalar Plain (c :: w)).

(* ---- the whole fetch, in flow context: the word becomes a Scalar token; if a key may start here the word is the new
        key candidate of this flow level ---- *)
Lemma fetch_plain_word_flow F c w lk mk toks adj ska sks ind inds fl tp ifms d rest :
  lower c -> Forall lower w -> ends_word fl d rest -> top_is_block inds -> (ind + 1 <= Z.of_N (m_col mk))%Z -> fl <> 0 ->
  (2 * length w + 4 <= F)%nat ->
  exists lk',
    fetch_plain_scalar str_ops F (St (c :: w ++ d :: rest) lk mk toks adj ska sks ind inds fl tp false ifms)
    = Ok (tt, St (d :: rest) lk' (adv (N.of_nat (S (length w))) mk) (toks ++ [word_token c w mk]) adj false
                 (if ska then word_key tp toks mk :: tl sks else sks) ind inds fl tp false ifms).
Proof.
  intros Hc HW HE HB HI HFL HF. unfold fetch_plain_scalar.
  set (sks' := if ska then word_key tp toks mk :: tl sks else sks).
  assert (SV : save_simple_key (St (c :: w ++ d :: rest) lk mk toks adj ska sks ind inds fl tp false ifms)
               = Ok (tt, St (c :: w ++ d :: rest) lk mk toks adj ska sks' ind inds fl tp false ifms)).
  { unfold save_simple_key, bind, get. st_norm. apply N.eqb_neq in HFL. rewrite HFL. destruct ska; reflexivity. }
  rewrite (bind_Ok _ _ _ _ _ SV).
  unfold bind at 1, disallow_simple_key at 1, modify at 1. st_norm.
  destruct (scan_plain_word F c w lk mk toks adj false sks' ind inds fl tp ifms d rest Hc HW HE HB HI HF) as (lk' & E).
  match goal with |- context [bind (scan_plain_scalar str_ops F) ?f ?st] =>
    change (bind (scan_plain_scalar str_ops F) f st)
      with (bind (scan_plain_scalar str_ops F) f
              (St (c :: w ++ d :: rest) lk mk toks adj false sks' ind inds fl tp false ifms)) end.
  rewrite (bind_Ok _ _ _ _ _ E). exists lk'. reflexivity.
Qed.

Lemma lower_no_marker_start (s : sc strin) c : lower c -> no_marker_start s c.
Proof. intros [A B]. split; [lia|]. right. repeat split; lia. Qed.

Lemma fetch_next_token_word_flow F c w lk mk toks adj ska sks ind inds fl tp ifms d rest :
  lower c -> Forall lower w -> ends_word fl d rest -> top_is_block inds -> (ind + 1 <= Z.of_N (m_col mk))%Z -> fl <> 0 ->
  (2 * length w + 4 <= F)%nat ->
  exists lk',
    fetch_next_token str_ops F (St (c :: w ++ d :: rest) lk mk toks adj ska sks ind inds fl tp false ifms)
    = Ok (tt, St (d :: rest) lk' (adv (N.of_nat (S (length w))) mk) (toks ++ [word_token c w mk]) adj false
                 (if ska then word_key tp toks mk :: tl sks else sks) ind inds fl tp false ifms).
Proof.
  intros Hc HW HE HB HI HFL HF.
  rewrite fetch_next_token_flow; [ | reflexivity | lia | exact HFL | exact (lower_not_skipped c Hc)
                                   | exact (lower_no_marker_start _ c Hc) ].
  match goal with |- context [dispatch F ?st ?st] =>
    change st with (St (c :: w ++ d :: rest) (Nat.max (Nat.max (Nat.max lk 1) 1) 4) mk toks adj ska sks ind inds fl tp false ifms) end.
  rewrite dispatch_lower; [ | exact Hc | cbn [St sc_indent sc_mark]; lia ].
  apply fetch_plain_word_flow; assumption.
Qed.

Definition seq_start_key : simple_key :=
  {| sk_possible := true; sk_required := false; sk_token_number := 1; sk_mark := {| m_index := 0; m_line := 1; m_col := 0 |} |}.
Definition level_key : simple_key := {| sk_possible := false; sk_required := false; sk_token_number := 0; sk_mark := mk0 |}.
Definition seq_start_token (n : N) : token :=
  ({| sp_start := {| m_index := 0; m_line := 1; m_col := 0 |}; sp_end := {| m_index := n; m_line := 1; m_col := n |} |},
   TFlowSequenceStart).

Lemma lower_stops_ws c : lower c -> stops_ws SkipYes c.
Proof. intros [A B]. repeat split; try lia; intros E; lia. Qed.

(* the text starts with "[", any blanks and a character that is none: the state behind the FlowSequenceStart token *)
Lemma fetch_root_sequence_start F ws c rest :
  blank_run SkipYes ws -> stops_ws SkipYes c -> (S (length ws) < F)%nat ->
  exists lk,
    fetch_next_token str_ops F (after_stream_start (91 :: ws ++ c :: rest))
    = Ok (tt, St (c :: rest) lk {| m_index := 1 + N.of_nat (length ws); m_line := 1; m_col := 1 + N.of_nat (length ws) |}
                 [seq_start_token (1 + N.of_nat (length ws))] 0 true [level_key; seq_start_key] (-1) [] 1 1 false [ImPossible]).
Proof.
  intros HB HS HF. set (l := 91 :: ws ++ c :: rest).
  rewrite (fetch_next_token_rest F (after_stream_start l) eq_refl) by (cbn; repeat split; (lia || discriminate)).
  set (s1 := looked (looked (after_stream_start l) 1) 1).
  rewrite (fetch_rest_no_marker F s1 (set_sks (sc_sks s1) s1) (set_sks (sc_sks s1) s1) eq_refl eq_refl)
    by (split; [discriminate | right; repeat split; discriminate]).
  rewrite dispatch_run by (cbn; lia).
  set (s4 := looked (set_sks (sc_sks s1) s1) 4).
  change (nth 0 (chars_of s4) 0) with 91. change (Dispatch.dispatch 91 _ _ _) with (Dispatch.DFlowStart true).
  cbn [run_dact].
  (* up to the blanks behind '[' nothing looks at the input *)
  set (m0 := {| m_index := 0; m_line := 1; m_col := 0 |}).
  set (s5 := St (ws ++ c :: rest) 4 {| m_index := 1; m_line := 1; m_col := 1 |} [] 0 true [level_key; seq_start_key] (-1) [] 1 1 false
                [ImPossible]).
  change (fetch_flow_collection_start str_ops F true s4)
    with ((skip_ws_to_eol str_ops F SkipYes ;;; m <- mark ;; push_tok (spn m0 m, TFlowSequenceStart)) s5).
  destruct (skip_ws_to_eol_run ws F SkipYes s5 c rest eq_refl HB HS ltac:(unfold chr in *; lia)) as (lk & E).
  rewrite (bind_Ok _ _ _ _ _ E). exists lk. reflexivity.
Qed.

(* ':' followed by a blank is the value indicator *)
Lemma dispatch_value F (s : sc strin) b rest :
  chars_of s = 58 :: b :: rest -> is_blank_or_breakz b = true -> (sc_indent s <= Z.of_N (m_col (sc_mark s)))%Z ->
  dispatch F s s = fetch_value str_ops F s.
Proof.
  intros HC Hb HI. rewrite (dispatch_run F s HI), HC. cbn [nth]. unfold Dispatch.dispatch. rewrite Hb. reflexivity.
Qed.

(* one more round of the refill in flow context: tokens are queued, and a key candidate whose token would be the next one
   to deliver is still possible *)
Lemma need_more_flow (s : sc strin) t ts :
  sc_tokens s = t :: ts -> sc_flow_level s <> 0 ->
  existsb (fun k => sk_possible k && (sk_token_number k =? sc_tokens_parsed s)) (sc_sks s) = true ->
  need_more s = Ok (true, set_sks (sc_sks s) s).
Proof.
  intros HT HFL HN. unfold need_more. unfold bind at 1, get at 1. rewrite HT.
  rewrite (bind_Ok _ _ _ _ _ (stale_simple_keys_flow s HFL)).
  unfold bind at 1, get at 1. unfold ret.
  cbn [sc_sks set_sks set_struct sc_tokens_parsed]. rewrite HN. reflexivity.
Qed.

(* the family of /repo 57aa316: EVERY text  "[ " k ": " ...  whose key k is a word of more than 1024  *)
(* lower-case letters is rejected, with site 98 at the ':' -- whatever follows *)
Theorem long_flow_pair_key_scan_error c w rest :
  lower c -> Forall lower w -> (1024 <= length w)%nat ->
  let l := [91; 32] ++ (c :: w) ++ 58 :: 32 :: rest in
  next_token str_ops (scan_fuel l) (after_stream_start l)
  = Err 98 {| m_index := 2 + N.of_nat (S (length w)); m_line := 1; m_col := 2 + N.of_nat (S (length w)) |}.
Proof.
  intros Hc HW HL l. set (F := scan_fuel l).
  assert (HF : (2 * length w + 4 <= F)%nat).
  { unfold F, scan_fuel, l. cbn [app length]. rewrite app_length. cbn [length]. unfold chr in *. lia. }
  set (m2 := {| m_index := 2; m_line := 1; m_col := 2 |}).
  (* two rounds of the refill: "[ " and the word; the third stands on the ':' *)
  destruct (fetch_root_sequence_start F [32] c (w ++ 58 :: 32 :: rest)) as (lk1 & E1);
    [repeat constructor; left; reflexivity | exact (lower_stops_ws c Hc) | cbn [length]; lia |].
  set (s1 := St (c :: w ++ 58 :: 32 :: rest) lk1 m2 [seq_start_token 2] 0 true [level_key; seq_start_key] (-1)%Z [] 1 1 false [ImPossible]).
  change (fetch_next_token str_ops F (after_stream_start l) = Ok (tt, s1)) in E1.
  destruct (fetch_next_token_word_flow F c w lk1 m2 [seq_start_token 2] 0 true [level_key; seq_start_key] (-1)%Z [] 1 1 [ImPossible]
              58 (32 :: rest)) as (lk2 & E2); try assumption.
  { apply ends_word_colon_blank. }
  { intros i r E; discriminate. } { cbn. lia. } { discriminate. }
  cbn [tl app] in E2. set (m3 := adv (N.of_nat (S (length w))) m2) in E2.
  match type of E2 with _ = Ok (tt, ?st) => set (s2 := st) in E2 end.
  assert (N1 : need_more s1 = Ok (true, s1)) by (apply (need_more_flow s1 (seq_start_token 2) []); [reflexivity | discriminate | reflexivity]).
  assert (N2 : need_more s2 = Ok (true, s2))
    by (apply (need_more_flow s2 (seq_start_token 2) [word_token c w m2]); [reflexivity | discriminate | reflexivity]).
  apply (round_fetch_error_is_scan_error F 2 (after_stream_start l) s2 s2 98 _ eq_refl eq_refl
           (rounds_S F 1 (after_stream_start l) (after_stream_start l) s1 s2 eq_refl E1
              (rounds_S F 0 s1 s1 s2 s2 N1 E2 (rounds_0 F s2))) N2); [|lia].
  rewrite (fetch_next_token_flow F s2); [ | reflexivity | lia | cbn; discriminate
                                          | cbn; repeat split; discriminate | cbn; split; [discriminate | right; repeat split; discriminate] ].
  match goal with |- dispatch F ?st ?st = _ => set (s4 := st) end.
  rewrite (dispatch_value F s4 32 rest); [ | reflexivity | reflexivity | cbn; lia ].
  rewrite (flow_pair_key_limit_rejected F s4 (word_key 1 [seq_start_token 2] m2) [seq_start_key] ImPossible []).
  - unfold s4, s2, m3, m2. cbn. f_equal.
  - reflexivity.
  - reflexivity.
  - reflexivity.
  - left; reflexivity.
  - right. unfold s4, s2, m3, m2, word_key. cbn [ahead looked with_chars set_sks set_struct set_in upd St sc_mark sk_mark m_index adv].
    change SIMPLE_KEY_MAX with 1024. lia.
  - left. cbn. discriminate.
  - cbn. lia.
  - cbn. lia.
Qed.

Theorem long_flow_pair_key_family_rejected k rest :
  lower_word k -> (1024 < length k)%nat -> snd (run_str ([91; 32] ++ k ++ 58 :: 32 :: rest)) <> PDone.
Proof.
  intros [HN HW] HL. destruct k as [|c w]; [contradiction|].
  inversion HW as [|x y Hc HW']; subst.
  set (l := [91; 32] ++ (c :: w) ++ 58 :: 32 :: rest).
  refine (reachable_scan_error_rejected l 1 (after_stream_start l) 98
            {| m_index := 2 + N.of_nat (S (length w)); m_line := 1; m_col := 2 + N.of_nat (S (length w)) |}
            (reach_after_stream_start l) _ _); [lia|].
  apply (long_flow_pair_key_scan_error c w rest Hc HW'). cbn [length] in HL. lia.
Qed.

(* the damage operator of the repaired finding, as a whole: a PROVED fragment of [C06_full] *)
Theorem damaged_long_key_rejected s : damaged_long_key s -> snd (run_str s) <> PDone.
Proof.
  intros H. destruct H as [k v Hk Hv HL].
  replace ([91; 32] ++ k ++ [58; 32] ++ v ++ [32; 93; 10]) with ([91; 32] ++ k ++ 58 :: 32 :: (v ++ [32; 93; 10])) by reflexivity.
  apply long_flow_pair_key_family_rejected; assumption.
Qed.

(* flat flow sequences of words, any number of words of any length:  "[" w1 ", " w2 ", " ... wn *)
Lemma dispatch_entry F (s : sc strin) rest :
  chars_of s = 44 :: rest -> (sc_indent s <= Z.of_N (m_col (sc_mark s)))%Z ->
  dispatch F s s = fetch_flow_entry str_ops F s.
Proof. intros HC HI. rewrite (dispatch_run F s HI), HC. reflexivity. Qed.

Definition entry_token (mk : marker) : token := ({| sp_start := mk; sp_end := adv 2 mk |}, TFlowEntry).

(* ", " in front of a word, inside a flow sequence whose implicit-pair state is Possible *)
Lemma fetch_next_token_entry_flow F c rest lk mk toks adj ska key sks ind inds fl tp r :
  lower c -> (ind <= Z.of_N (m_col mk))%Z -> fl <> 0 -> sk_required key = false -> (2 < F)%nat ->
  exists lk',
    fetch_next_token str_ops F (St (44 :: 32 :: c :: rest) lk mk toks adj ska (key :: sks) ind inds fl tp false (ImPossible :: r))
    = Ok (tt, St (c :: rest) lk' (adv 2 mk) (toks ++ [entry_token mk]) adj true (invalidate key :: sks) ind inds fl tp false
                 (ImPossible :: r)).
Proof.
  intros Hc HI HFL HR HF.
  rewrite fetch_next_token_flow; [ | reflexivity | lia | exact HFL | cbn; repeat split; discriminate
                                   | cbn; split; [discriminate | right; repeat split; discriminate] ].
  match goal with |- context [dispatch F ?st ?st] => set (s4 := st) end.
  rewrite (dispatch_entry F s4 (32 :: c :: rest)); [ | reflexivity | exact HI ].
  unfold fetch_flow_entry.
  unfold bind at 1. unfold remove_simple_key at 1, bind at 1, get at 1.
  unfold s4. st_norm. rewrite HR, andb_false_r.
  unfold put at 1.
  unfold bind at 1, allow_simple_key at 1, modify at 1. st_norm.
  unfold bind at 1, mark at 1, gets at 1. st_norm.
  unfold bind at 1. unfold end_implicit_mapping at 1, bind at 1, get at 1. st_norm. unfold ret at 1.
  unfold bind at 1. unfold skip_non_blank at 1, bind at 1, in_skip at 1, modify at 1.
  unfold bind at 1, adv_mark at 1, modify at 1. unfold modify at 1. st_norm.
  match goal with |- context [bind (skip_ws_to_eol str_ops F SkipYes) ?f ?st] => set (s5 := st) end.
  assert (HC5 : chars_of s5 = [32] ++ c :: rest) by reflexivity.
  assert (HB5 : blank_run SkipYes [32]) by (constructor; [left; reflexivity | constructor]).
  destruct (skip_ws_to_eol_run [32] F SkipYes s5 c rest HC5 HB5 (lower_stops_ws c Hc) ltac:(cbn [length]; lia)) as (lk' & E).
  rewrite (bind_Ok _ _ _ _ _ E).
  unfold bind at 1, mark at 1, gets at 1. unfold push_tok, modify.
  exists lk'. unfold s5, entry_token, invalidate, spn. st_norm. rewrite HR.
  rewrite adv_adv. reflexivity.
Qed.

Lemma rounds_app F n m s s' s'' : rounds F n s s' -> rounds F m s' s'' -> rounds F (n + m) s s''.
Proof.
  induction 1 as [s|n s s1 s2 s3 HN HFe HR IH]; intros H2; [exact H2|].
  cbn [Nat.add]. eapply rounds_S; [exact HN | exact HFe | apply IH; exact H2].
Qed.

(* the state behind a word of a root-level flat flow sequence: the word is the key candidate of level 1, the '[' that of
   level 0 (still possible: that is why the refill goes on) *)
Definition FS (chars : list N) (lk : nat) (mk : marker) (toks : list token) (key : simple_key) : sc strin :=
  St chars lk mk toks 0 false [key; seq_start_key] (-1)%Z [] 1 1 false [ImPossible].

Fixpoint flat_tail (ws : list (N * list N)) : list N :=
  match ws with
  | [] => []
  | (c, w) :: r => 44 :: 32 :: c :: w ++ flat_tail r
  end.
Definition lower_cw (cw : N * list N) : Prop := lower (fst cw) /\ Forall lower (snd cw).

Lemma flat_tail_head_flow ws d rest : is_flow d = true -> is_flow (nth 0 (flat_tail ws ++ d :: rest) 0) = true.
Proof. intros H. destruct ws as [|[c w] r]; [exact H | reflexivity]. Qed.

Lemma FS_need_more chars lk mk toks key t ts :
  toks = t :: ts -> need_more (FS chars lk mk toks key) = Ok (true, FS chars lk mk toks key).
Proof.
  intros ->. rewrite (need_more_flow _ t ts); [reflexivity | reflexivity | discriminate | ].
  cbn [FS St sc_sks sc_tokens_parsed existsb seq_start_key sk_possible sk_token_number].
  apply orb_true_iff. right. reflexivity.
Qed.

Lemma flat_rounds F ws : forall lk mk toks key t ts d rest,
  Forall lower_cw ws -> Forall (fun cw => (2 * length (snd cw) + 4 <= F)%nat) ws -> (2 < F)%nat ->
  is_flow d = true -> sk_required key = false -> toks = t :: ts ->
  exists lk' mk' toks' key' t' ts',
    rounds F (2 * length ws) (FS (flat_tail ws ++ d :: rest) lk mk toks key) (FS (d :: rest) lk' mk' toks' key')
    /\ sk_required key' = false /\ toks' = t' :: ts'.
Proof.
  induction ws as [|[c w] r IH]; intros lk mk toks key t ts d rest HW HFu HF HD HR HT.
  - exists lk, mk, toks, key, t, ts. split; [apply rounds_0 | split; assumption].
  - inversion HW as [|x y [Hc Hw] HW']; subst x y. inversion HFu as [|x y Hf HFu']; subst x y.
    cbn [fst snd] in Hc, Hw, Hf. cbn [flat_tail]. rewrite <- !app_comm_cons, <- app_assoc.
    (* ", " *)
    destruct (fetch_next_token_entry_flow F c (w ++ flat_tail r ++ d :: rest) lk mk toks 0 false key [seq_start_key] (-1)%Z [] 1 1 []
                Hc ltac:(lia) ltac:(discriminate) HR HF) as (lk1 & E1).
    (* the word *)
    assert (HE : ends_word 1 (nth 0 (flat_tail r ++ d :: rest) 0) (tl (flat_tail r ++ d :: rest))).
    { apply ends_word_flow; [discriminate | apply flat_tail_head_flow; exact HD]. }
    assert (HS : flat_tail r ++ d :: rest = nth 0 (flat_tail r ++ d :: rest) 0 :: tl (flat_tail r ++ d :: rest)).
    { destruct r as [|[c' w'] r']; reflexivity. }
    rewrite HS in E1 |- *.
    destruct (fetch_next_token_word_flow F c w lk1 (adv 2 mk) (toks ++ [entry_token mk]) 0 true [invalidate key; seq_start_key] (-1)%Z [] 1 1
                [ImPossible] _ _ Hc Hw HE ltac:(intros i r0 E; discriminate) ltac:(cbn; lia) ltac:(discriminate) Hf) as (lk2 & E2).
    rewrite <- HS in E2 |- *. cbn [tl] in E2.
    set (toks2 := (toks ++ [entry_token mk]) ++ [word_token c w (adv 2 mk)]) in *.
    assert (HT2 : exists t2 ts2, toks2 = t2 :: ts2).
    { unfold toks2. rewrite HT. cbn [app]. eauto. }
    destruct HT2 as (t2 & ts2 & HT2).
    destruct (IH lk2 (adv (N.of_nat (S (length w))) (adv 2 mk)) toks2 (word_key 1 (toks ++ [entry_token mk]) (adv 2 mk)) t2 ts2 d rest
                HW' HFu' HF HD eq_refl HT2) as (lk' & mk' & toks' & key' & t' & ts' & R & HR' & HT').
    exists lk', mk', toks', key', t', ts'. split; [|split; assumption].
    replace (2 * length ((c, w) :: r))%nat with (S (S (2 * length r))) by (cbn [length]; lia).
    eapply rounds_S; [apply (FS_need_more _ _ _ _ _ t ts HT) | rewrite <- HS in E1; exact E1 | ].
    assert (HT1 : exists t1 ts1, toks ++ [entry_token mk] = t1 :: ts1) by (rewrite HT; cbn [app]; eauto).
    destruct HT1 as (t1 & ts1 & HT1).
    eapply rounds_S; [ | exact E2 | exact R].
    rewrite (need_more_flow _ t1 ts1); [reflexivity | exact HT1 | discriminate | ].
    cbn [St sc_sks sc_tokens_parsed existsb seq_start_key invalidate sk_possible sk_token_number].
    apply orb_true_iff. right. reflexivity.
Qed.

Lemma flat_tail_length ws : Forall (fun cw => (length (snd cw) <= length (flat_tail ws))%nat) ws /\ (length ws <= length (flat_tail ws))%nat.
Proof.
  induction ws as [|[c w] r [IH1 IH2]]; [split; [constructor | cbn; lia]|].
  cbn [flat_tail length]. rewrite app_length. split; [|lia].
  constructor; [cbn [snd]; lia|]. eapply Forall_impl; [|exact IH1]. intros [c' w'] H. cbn [snd] in *. lia.
Qed.

(* EVERY text  "[" w1 ", " w2 ", " ... wn "}" ...  (n >= 1 words of lower-case letters, any lengths): the '}' is scan error 48
   -- the swapped-closer damage of every flat flow sequence of words, whatever follows *)
Theorem flat_sequence_wrong_closer_rejected c1 w1 ws rest :
  lower c1 -> Forall lower w1 -> Forall lower_cw ws ->
  snd (run_str (91 :: c1 :: w1 ++ flat_tail ws ++ 125 :: rest)) <> PDone.
Proof.
  intros Hc1 Hw1 HWS.
  set (l := 91 :: c1 :: w1 ++ flat_tail ws ++ 125 :: rest).
  destruct (flat_tail_length ws) as [HLW HLN].
  assert (HLEN : length l = (2 + length w1 + length (flat_tail ws) + S (length rest))%nat).
  { unfold l. cbn [length]. rewrite !app_length. cbn [length]. unfold chr in *. lia. }
  assert (HF1 : (2 * length w1 + 4 <= scan_fuel l)%nat) by (unfold scan_fuel; lia).
  assert (HFW : Forall (fun cw => (2 * length (snd cw) + 4 <= scan_fuel l)%nat) ws).
  { eapply Forall_impl; [|exact HLW]. intros cw H. cbv beta in H. unfold scan_fuel. unfold chr in *. lia. }
  set (m1 := {| m_index := 1; m_line := 1; m_col := 1 |}).
  (* "[" *)
  destruct (fetch_root_sequence_start (scan_fuel l) [] c1 (w1 ++ flat_tail ws ++ 125 :: rest)) as (lk1 & E1);
    [constructor | exact (lower_stops_ws c1 Hc1) | unfold scan_fuel; cbn [length]; lia |].
  change (fetch_next_token str_ops (scan_fuel l) (after_stream_start l)
          = Ok (tt, St (c1 :: w1 ++ flat_tail ws ++ 125 :: rest) lk1 m1 [seq_start_token 1] 0 true [level_key; seq_start_key] (-1)%Z []
                       1 1 false [ImPossible])) in E1.
  (* the word w1 *)
  assert (HS : flat_tail ws ++ 125 :: rest = nth 0 (flat_tail ws ++ 125 :: rest) 0 :: tl (flat_tail ws ++ 125 :: rest)).
  { destruct ws as [|[c' w'] r']; reflexivity. }
  assert (HE : ends_word 1 (nth 0 (flat_tail ws ++ 125 :: rest) 0) (tl (flat_tail ws ++ 125 :: rest))).
  { apply ends_word_flow; [discriminate | apply flat_tail_head_flow; reflexivity]. }
  destruct (fetch_next_token_word_flow (scan_fuel l) c1 w1 lk1 m1 [seq_start_token 1] 0 true [level_key; seq_start_key] (-1)%Z [] 1 1
              [ImPossible] _ _ Hc1 Hw1 HE ltac:(intros i r0 E; discriminate) ltac:(cbn; lia) ltac:(discriminate) HF1) as (lk2 & E2).
  rewrite <- HS in E2. cbn [tl app] in E2.
  (* the other words *)
  destruct (flat_rounds (scan_fuel l) ws lk2 (adv (N.of_nat (S (length w1))) m1) [seq_start_token 1; word_token c1 w1 m1]
              (word_key 1 [seq_start_token 1] m1) (seq_start_token 1) [word_token c1 w1 m1] 125 rest HWS HFW ltac:(unfold scan_fuel; lia)
              eq_refl eq_refl eq_refl) as (lk' & mk' & toks' & key' & t' & ts' & R & HR' & HT').
  apply (reachable_round_error_rejected l 1 (2 + 2 * length ws) (after_stream_start l)
           (FS (125 :: rest) lk' mk' toks' key') (FS (125 :: rest) lk' mk' toks' key') 48 mk' (reach_after_stream_start l)).
  - lia.
  - reflexivity.
  - reflexivity.
  - cbn [Nat.add]. eapply rounds_S; [reflexivity | exact E1 | eapply rounds_S; [ | exact E2 | exact R ]].
    rewrite (need_more_flow _ (seq_start_token 1) []); [reflexivity | reflexivity | discriminate | reflexivity].
  - unfold scan_fuel. unfold chr in *. lia.
  - apply (FS_need_more _ _ _ _ _ t' ts' HT').
  - apply (mismatched_flow_closer_fetch_rejected (scan_fuel l) (FS (125 :: rest) lk' mk' toks' key') false ImPossible []);
      try reflexivity; try (unfold scan_fuel; lia); try discriminate.
    cbn [FS St sc_indent sc_mark]. lia.
Qed.

(* the same as a statement about the damage operator DSwapCloser of the full property, for every flat sequence *)
Definition split_word (k : list N) : N * list N := (hd 0 k, tl k).

Lemma join_flat_tail k r :
  Forall lower_word (k :: r) -> join_with [44; 32] (k :: r) = k ++ flat_tail (map split_word r).
Proof.
  revert k. induction r as [|k' r IH]; intros k H.
  - cbn. rewrite app_nil_r. reflexivity.
  - inversion H as [|x y Hk H']; subst.
    change (join_with [44; 32] (k :: k' :: r)) with (k ++ [44; 32] ++ join_with [44; 32] (k' :: r)).
    rewrite (IH k' H').
    inversion H' as [|x y [Hne _] _]; subst. destruct k' as [|c w]; [contradiction|].
    cbn [map flat_tail split_word hd tl]. reflexivity.
Qed.

Lemma lower_word_split k : lower_word k -> k = fst (split_word k) :: snd (split_word k) /\ lower_cw (split_word k).
Proof.
  intros [Hne HF]. destruct k as [|c w]; [contradiction|]. cbn. split; [reflexivity|].
  inversion HF; subst. split; assumption.
Qed.

Theorem swap_closer_flat_sequence_rejected ws :
  ws <> [] -> Forall lower_word ws ->
  let f := WSeq (map WWord ws) in
  damaged (removelast (render_flow f) ++ [other_closer (last (render_flow f) 0); 10])
  /\ snd (run_str (removelast (render_flow f) ++ [other_closer (last (render_flow f) 0); 10])) <> PDone.
Proof.
  intros Hne HW f. split.
  - apply DSwapCloser; [|reflexivity]. apply OkSeq. apply Forall_forall. intros x Hin.
    apply in_map_iff in Hin. destruct Hin as (k & <- & Hk). apply OkWord.
    exact (proj1 (Forall_forall _ _) HW k Hk).
  - unfold f. cbn [render_flow]. rewrite map_map. cbn [render_flow]. rewrite map_id.
    rewrite app_assoc, removelast_last, last_last.
    change (other_closer 93) with 125.
    destruct ws as [|k r]; [contradiction|].
    rewrite (join_flat_tail k r HW).
    inversion HW as [|x y Hk HW']; subst.
    destruct (lower_word_split k Hk) as [Ek [Hc Hw]].
    rewrite Ek. rewrite <- !app_assoc. cbn [app].
    apply (flat_sequence_wrong_closer_rejected _ _ (map split_word r) [10] Hc Hw).
    apply Forall_forall. intros cw Hin. apply in_map_iff in Hin. destruct Hin as (k' & <- & Hk').
    exact (proj2 (lower_word_split k' (proj1 (Forall_forall _ _) HW' k' Hk'))).
Qed.
