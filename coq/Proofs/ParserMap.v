(* The parser never looks inside a marker.

   Parser.v copies markers from token spans into event spans, into error values and into the state
   [SFlowSequenceEntryMappingEnd m], and does nothing else with them.  So for ANY map [em] on markers, lifted to
   spans, tokens, parser states, parsers, events and results, every function of the parser commutes with the lifted
   map:  f (map_parser p) = map_res (..) (f p),  up to [state_machine_map].

   The walks go through the two-way forms of ParserView.v.  That [map_parser] moves outward through a record update
   ([skip], [set_state], [push_state], ...) holds by conversion: where the next step has to see it, it is a [rewrite]
   with one of the equations [skip_map] ... [register_anchor_map]; elsewhere it is left to [exact] or to the
   [reflexivity] that closes a leaf. *)
From Coq Require Import List NArith Bool.
Import ListNotations.
Require Import Parser ParserView.

Section Map.
Variable em : marker -> marker.

Definition map_span (s : span) : span := {| sp_start := em (sp_start s); sp_end := em (sp_end s) |}.
Definition map_tok (t : token) : token := (map_span (fst t), snd t).
Definition map_state (s : pstate) : pstate :=
  match s with SFlowSequenceEntryMappingEnd m => SFlowSequenceEntryMappingEnd (em m) | s => s end.
Definition map_parser (p : parser) : parser :=
  {| p_toks := map map_tok (p_toks p); p_token := option_map map_tok (p_token p);
     p_states := map map_state (p_states p); p_state := map_state (p_state p);
     p_anchors := p_anchors p; p_anchor_id := p_anchor_id p; p_tags := p_tags p; p_keep_tags := p_keep_tags p |}.
Definition map_event (v : event * span) : event * span := (fst v, map_span (snd v)).
(* on the values the parser functions return *)
Definition map_peek (v : token * parser) : token * parser := (map_tok (fst v), map_parser (snd v)).
Definition map_step (v : (event * span) * parser) : (event * span) * parser := (map_event (fst v), map_parser (snd v)).
Definition map_props (v : N * option tag * parser) : N * option tag * parser := (fst v, map_parser (snd v)).
Definition map_res {A B} (f : A -> B) (r : res A) : res B :=
  match r with
  | Ok v => Ok (f v)
  | Err PErrScan => Err PErrScan
  | Err (PErr s m) => Err (PErr s (em m))
  | Panic n => Panic n
  end.

Lemma bind_map_with {T T' U U'} (e1 : T -> T') (e2 : U -> U') r r' (k : T -> res U) (k' : T' -> res U') :
  r' = map_res e1 r -> (forall v, k' (e1 v) = map_res e2 (k v)) ->
  (do v <- r'; k' v) = map_res e2 (do v <- r; k v).
Proof. intros -> HK. destruct r as [v|[|s m]|n]; cbn [map_res]; auto. Qed.

Lemma bind_map {T T' U U'} (e1 : T -> T') (e2 : U -> U') r (k : T -> res U) (k' : T' -> res U') :
  (forall v, k' (e1 v) = map_res e2 (k v)) ->
  (do v <- map_res e1 r; k' v) = map_res e2 (do v <- r; k v).
Proof. apply bind_map_with. reflexivity. Qed.

(* the primitives *)

Lemma peek_map p : peek (map_parser p) = map_res map_peek (peek p).
Proof.
  destruct p as [toks tok sts st an aid tg kt]. unfold peek, map_parser. cbn [p_token p_toks].
  destruct tok as [t|]; [reflexivity|]. cbn [option_map]. destruct toks as [|t r]; reflexivity.
Qed.

Lemma pop_state_map p : pop_state (map_parser p) = map_res map_parser (pop_state p).
Proof.
  destruct p as [toks tok sts st an aid tg kt]. unfold pop_state, map_parser. cbn [p_states]. destruct sts; reflexivity.
Qed.

Lemma resolve_tag_map p m h s : resolve_tag (map_parser p) (em m) h s = map_res (fun v : tag => v) (resolve_tag p m h s).
Proof.
  unfold resolve_tag. change (p_tags (map_parser p)) with (p_tags p).
  destruct (str_eqb h [bang; bang]); [reflexivity|].
  destruct (_ && _); [reflexivity|].
  destruct (assoc h (p_tags p)); [reflexivity|]. destruct (is_named_handle h); reflexivity.
Qed.

Lemma len_toks_map p : length (p_toks (map_parser p)) = length (p_toks p).
Proof. apply map_length. Qed.

Lemma skip_map p : skip (map_parser p) = map_parser (skip p).
Proof. reflexivity. Qed.
Lemma set_tags_map p t : set_tags (map_parser p) t = map_parser (set_tags p t).
Proof. reflexivity. Qed.
Lemma set_anchors_map p a n : set_anchors (map_parser p) a n = map_parser (set_anchors p a n).
Proof. reflexivity. Qed.
Lemma anchor_id_map p : p_anchor_id (map_parser p) = p_anchor_id p.
Proof. reflexivity. Qed.
Lemma register_anchor_map p name :
  register_anchor (map_parser p) name = (fst (register_anchor p name), map_parser (snd (register_anchor p name))).
Proof. reflexivity. Qed.

Lemma skip_first_map (first : bool) p :
  (if first then do (_, q) <- peek (map_parser p); Ok (skip q) else Ok (map_parser p)) =
  map_res map_parser (if first then do (_, q) <- peek p; Ok (skip q) else Ok p).
Proof.
  destruct first; [|reflexivity]. rewrite peek_map. apply bind_map. intros [t q]. reflexivity.
Qed.

(* nodes *)

Lemma node_props_map p t : node_props (map_parser p) (map_tok t) = map_res map_props (node_props p t).
Proof.
  rewrite !node_props_if. change (snd (map_tok t)) with (snd t).
  change (sp_start (fst (map_tok t))) with (em (sp_start (fst t))).
  destruct (as_anchor (snd t)) as [name|].
  - cbv zeta. rewrite skip_map, register_anchor_map.
    destruct (register_anchor (skip p) name) as [id q]. cbn [fst snd].
    rewrite peek_map. apply bind_map. intros [t2 q2]. cbn [map_peek fst snd]. change (snd (map_tok t2)) with (snd t2).
    destruct (as_tag (snd t2)) as [[h s]|]; [|reflexivity].
    cbv zeta. rewrite skip_map, resolve_tag_map. apply bind_map. intros tg. reflexivity.
  - destruct (as_tag (snd t)) as [[h s]|]; [|reflexivity].
    cbv zeta. rewrite skip_map, resolve_tag_map. apply bind_map. intros tg.
    rewrite peek_map. apply bind_map. intros [t2 q2]. cbn [map_peek fst snd].
    change (snd (map_tok t2)) with (snd t2). destruct (as_anchor (snd t2)); reflexivity.
Qed.

Lemma empty_or_err_map p aid tg sp :
  empty_or_err (map_parser p) aid tg (map_span sp) = map_res map_step (empty_or_err p aid tg sp).
Proof.
  unfold empty_or_err. destruct (has_props aid tg); [|reflexivity].
  rewrite pop_state_map. apply bind_map. intros q. reflexivity.
Qed.

Lemma node_content_map p aid tg block indentless :
  node_content (map_parser p) aid tg block indentless = map_res map_step (node_content p aid tg block indentless).
Proof.
  rewrite !node_content_if, peek_map. apply bind_map. intros [[sp k] q]. cbn [map_peek map_tok fst snd].
  destruct (as_scalar k) as [[st v]|].
  { rewrite pop_state_map. apply bind_map. intros q1. reflexivity. }
  destruct (tis TBlockEntry k).
  { destruct indentless; [reflexivity|apply empty_or_err_map]. }
  destruct (tis TFlowSequenceStart k); [reflexivity|].
  destruct (tis TFlowMappingStart k); [reflexivity|].
  destruct (tis TBlockSequenceStart k && block); [reflexivity|].
  destruct (tis TBlockMappingStart k && block); [reflexivity|].
  apply empty_or_err_map.
Qed.

Lemma parse_node_map p block indentless :
  parse_node (map_parser p) block indentless = map_res map_step (parse_node p block indentless).
Proof.
  rewrite !parse_node_if, peek_map. apply bind_map. intros [t q]. cbn [map_peek fst snd].
  change (snd (map_tok t)) with (snd t). destruct (as_alias (snd t)) as [name|].
  - rewrite pop_state_map. apply bind_map. intros q1. cbv zeta.
    change (p_anchors (skip (map_parser q1))) with (p_anchors (skip q1)).
    destruct (assoc name (p_anchors (skip q1))); reflexivity.
  - rewrite node_props_map. apply bind_map. intros [[aid tg] q1]. apply node_content_map.
Qed.

Lemma node_or_empty_map l p st block indentless :
  node_or_empty l (map_parser p) (map_state st) block indentless =
  map_res map_step (node_or_empty l p st block indentless).
Proof.
  unfold node_or_empty. rewrite peek_map. apply bind_map. intros [t q]. cbn [map_peek fst snd].
  change (snd (map_tok t)) with (snd t). destruct (tin l (snd t)); [reflexivity|].
  exact (parse_node_map (push_state q st) block indentless).
Qed.

(* documents *)

Lemma stream_start_map p : stream_start (map_parser p) = map_res map_step (stream_start p).
Proof.
  unfold stream_start. rewrite peek_map. apply bind_map. intros [[sp k] q]. destruct k; reflexivity.
Qed.

Lemma process_directives_map : forall f p vs tags,
  process_directives f (map_parser p) vs tags = map_res map_parser (process_directives f p vs tags).
Proof.
  induction f as [|f IH]; intros p vs tags; [reflexivity|]. cbn [process_directives].
  rewrite peek_map. apply bind_map. intros [[sp k] q]. cbn [map_peek map_tok fst snd].
  destruct k; try reflexivity.
  - destruct vs; [reflexivity|]. exact (IH (skip q) true tags).
  - destruct (_ && _); [reflexivity|]. exact (IH (skip q) vs _).
Qed.

Lemma skip_document_ends_map : forall f p,
  skip_document_ends f (map_parser p) = map_res map_parser (skip_document_ends f p).
Proof.
  induction f as [|f IH]; intros p; [reflexivity|]. cbn [skip_document_ends].
  rewrite peek_map. apply bind_map. intros [[sp k] q]. cbn [map_peek map_tok fst snd].
  destruct k; try reflexivity. exact (IH (skip q)).
Qed.

(* the fuel of the two loops is the length of the token list, which the map keeps *)
Lemma process_directives_call_map p vs tags :
  process_directives (S (S (length (p_toks (map_parser p))))) (map_parser p) vs tags =
  map_res map_parser (process_directives (S (S (length (p_toks p)))) p vs tags).
Proof. rewrite len_toks_map. apply process_directives_map. Qed.

Lemma skip_document_ends_call_map p :
  skip_document_ends (S (S (length (p_toks (map_parser p))))) (map_parser p) =
  map_res map_parser (skip_document_ends (S (S (length (p_toks p)))) p).
Proof. rewrite len_toks_map. apply skip_document_ends_map. Qed.

Lemma explicit_document_start_map p :
  explicit_document_start (map_parser p) = map_res map_step (explicit_document_start p).
Proof.
  unfold explicit_document_start. rewrite process_directives_call_map. apply bind_map. intros q.
  rewrite peek_map. apply bind_map. intros [[sp k] q1]. destruct k; reflexivity.
Qed.

Lemma document_start_map p implicit :
  document_start (map_parser p) implicit = map_res map_step (document_start p implicit).
Proof.
  rewrite !document_start_if, skip_document_ends_call_map. apply bind_map. intros q.
  rewrite peek_map. apply bind_map. intros [[sp k] q1]. cbn [map_peek map_tok fst snd].
  destruct (tis TStreamEnd k); [reflexivity|].
  destruct (negb implicit || tin (TDocumentStart :: directive_kinds) k); [apply explicit_document_start_map|].
  rewrite process_directives_call_map. apply bind_map. intros q2. reflexivity.
Qed.

Lemma document_content_map p : document_content (map_parser p) = map_res map_step (document_content p).
Proof.
  rewrite !document_content_if, peek_map. apply bind_map. intros [t q]. cbn [map_peek fst snd].
  change (snd (map_tok t)) with (snd t). destruct (tin _ (snd t)); [|apply parse_node_map].
  rewrite pop_state_map. apply bind_map. intros q1. reflexivity.
Qed.

Lemma document_end_map p : document_end (map_parser p) = map_res map_step (document_end p).
Proof.
  rewrite !document_end_if, peek_map. apply bind_map. intros [[sp k] q]. cbn [map_peek map_tok fst snd]. cbv zeta.
  destruct (tis TDocumentEnd k).
  - change (p_keep_tags (skip (map_parser q))) with (p_keep_tags (skip q)).
    destruct (p_keep_tags (skip q)); reflexivity.
  - change (p_keep_tags (map_parser q)) with (p_keep_tags q).
    destruct (p_keep_tags q); rewrite ?set_tags_map, anchor_id_map, set_anchors_map, peek_map; apply bind_map;
      intros [t2 q2]; cbn [map_peek fst snd]; change (snd (map_tok t2)) with (snd t2);
      destruct (tin directive_kinds (snd t2)); reflexivity.
Qed.

(* collections *)

Lemma block_mapping_key_map p first :
  block_mapping_key (map_parser p) first = map_res map_step (block_mapping_key p first).
Proof.
  rewrite !block_mapping_key_if, skip_first_map. apply bind_map. intros q0.
  rewrite peek_map. apply bind_map. intros [[sp k] q]. cbn [map_peek map_tok fst snd].
  destruct (tis TKey k); [exact (node_or_empty_map _ (skip q) SBlockMappingValue true true)|].
  destruct (tis TValue k); [reflexivity|].
  destruct (tis TBlockEnd k); [|reflexivity].
  rewrite pop_state_map. apply bind_map. intros q1. reflexivity.
Qed.

Lemma block_mapping_value_map p : block_mapping_value (map_parser p) = map_res map_step (block_mapping_value p).
Proof.
  rewrite !block_mapping_value_if, peek_map. apply bind_map. intros [t q]. cbn [map_peek fst snd].
  change (snd (map_tok t)) with (snd t). destruct (tis TValue (snd t)); [|reflexivity].
  exact (node_or_empty_map _ (skip q) SBlockMappingKey true true).
Qed.

Lemma block_sequence_entry_map p first :
  block_sequence_entry (map_parser p) first = map_res map_step (block_sequence_entry p first).
Proof.
  rewrite !block_sequence_entry_if, skip_first_map. apply bind_map. intros q0.
  rewrite peek_map. apply bind_map. intros [[sp k] q]. cbn [map_peek map_tok fst snd].
  destruct (tis TBlockEnd k).
  { rewrite pop_state_map. apply bind_map. intros q1. reflexivity. }
  destruct (tis TBlockEntry k); [|reflexivity].
  exact (node_or_empty_map _ (skip q) SBlockSequenceEntry true false).
Qed.

Lemma indentless_sequence_entry_map p :
  indentless_sequence_entry (map_parser p) = map_res map_step (indentless_sequence_entry p).
Proof.
  rewrite !indentless_sequence_entry_if, peek_map. apply bind_map. intros [t q]. cbn [map_peek fst snd].
  change (snd (map_tok t)) with (snd t). destruct (tis TBlockEntry (snd t)).
  - exact (node_or_empty_map _ (skip q) SIndentlessSequenceEntry true false).
  - rewrite pop_state_map. apply bind_map. intros q1. reflexivity.
Qed.

Lemma flow_mapping_key_map p first :
  flow_mapping_key (map_parser p) first = map_res map_step (flow_mapping_key p first).
Proof.
  rewrite !flow_mapping_key_if, skip_first_map. apply bind_map. intros q0.
  rewrite peek_map. apply bind_map. intros [[sp k] q]. cbn [map_peek map_tok fst snd].
  destruct (tis TFlowMappingEnd k).
  { rewrite pop_state_map. apply bind_map. intros q1. reflexivity. }
  apply (bind_map_with map_parser).
  { destruct first; [reflexivity|]. rewrite peek_map. apply bind_map. intros [t1 q1]. cbn [map_peek fst snd].
    change (snd (map_tok t1)) with (snd t1). destruct (tis TFlowEntry (snd t1)); reflexivity. }
  intros q1. rewrite peek_map. apply bind_map. intros [[sp2 k2] q2]. cbn [map_peek map_tok fst snd].
  destruct (tis TKey k2); [exact (node_or_empty_map _ (skip q2) SFlowMappingValue false false)|].
  destruct (tis TValue k2); [reflexivity|].
  destruct (tis TFlowMappingEnd k2).
  { rewrite pop_state_map. apply bind_map. intros q3. reflexivity. }
  exact (parse_node_map (push_state q2 SFlowMappingEmptyValue) false false).
Qed.

Lemma flow_mapping_value_map p empty :
  flow_mapping_value (map_parser p) empty = map_res map_step (flow_mapping_value p empty).
Proof.
  rewrite !flow_mapping_value_if. destruct empty.
  { rewrite peek_map. apply bind_map. intros [t q]. reflexivity. }
  rewrite peek_map. apply bind_map. intros [t q]. cbn [map_peek fst snd].
  change (snd (map_tok t)) with (snd t). destruct (tis TValue (snd t)); [|reflexivity].
  rewrite skip_map, peek_map. apply bind_map. intros [t2 q2]. cbn [map_peek fst snd].
  change (snd (map_tok t2)) with (snd t2). destruct (tin _ (snd t2)); [reflexivity|].
  exact (parse_node_map (push_state q2 SFlowMappingKey) false false).
Qed.

Lemma flow_sequence_entry_map p first :
  flow_sequence_entry (map_parser p) first = map_res map_step (flow_sequence_entry p first).
Proof.
  rewrite !flow_sequence_entry_if, skip_first_map. apply bind_map. intros q0.
  rewrite peek_map. apply bind_map. intros [[sp k] q]. cbn [map_peek map_tok fst snd].
  destruct (tis TFlowSequenceEnd k).
  { rewrite pop_state_map. apply bind_map. intros q1. reflexivity. }
  apply (bind_map_with map_parser).
  { destruct first; [reflexivity|]. destruct (tis TFlowEntry k); reflexivity. }
  intros q1. rewrite peek_map. apply bind_map. intros [[sp2 k2] q2]. cbn [map_peek map_tok fst snd].
  destruct (tis TFlowSequenceEnd k2).
  { rewrite pop_state_map. apply bind_map. intros q3. reflexivity. }
  destruct (tis TKey k2); [reflexivity|].
  exact (parse_node_map (push_state q2 SFlowSequenceEntry) false false).
Qed.

Lemma flow_sequence_entry_mapping_key_map p :
  flow_sequence_entry_mapping_key (map_parser p) = map_res map_step (flow_sequence_entry_mapping_key p).
Proof.
  rewrite !flow_sequence_entry_mapping_key_if.
  exact (node_or_empty_map _ p SFlowSequenceEntryMappingValue false false).
Qed.

Lemma flow_sequence_entry_mapping_value_map p :
  flow_sequence_entry_mapping_value (map_parser p) = map_res map_step (flow_sequence_entry_mapping_value p).
Proof.
  rewrite !flow_sequence_entry_mapping_value_if, peek_map. apply bind_map. intros [t q]. cbn [map_peek fst snd].
  change (snd (map_tok t)) with (snd t). destruct (tis TValue (snd t)); [|reflexivity].
  rewrite skip_map, peek_map. apply bind_map. intros [t2 q2]. cbn [map_peek fst snd]. cbv zeta.
  change (snd (map_tok t2)) with (snd t2). destruct (tin _ (snd t2)); [reflexivity|].
  exact (parse_node_map (push_state (set_state q2 SFlowSequenceEntryMappingValue)
                                    (SFlowSequenceEntryMappingEnd (sp_end (fst t2)))) false false).
Qed.

Lemma flow_sequence_entry_mapping_end_map p m :
  flow_sequence_entry_mapping_end (map_parser p) (em m) = map_res map_step (flow_sequence_entry_mapping_end p m).
Proof. reflexivity. Qed.

Theorem state_machine_map p : state_machine (map_parser p) = map_res map_step (state_machine p).
Proof.
  unfold state_machine. change (p_state (map_parser p)) with (map_state (p_state p)).
  destruct (p_state p); cbn [map_state].
  - apply stream_start_map.
  - apply document_start_map.
  - apply document_start_map.
  - apply document_content_map.
  - apply document_end_map.
  - apply parse_node_map.
  - apply block_sequence_entry_map.
  - apply block_sequence_entry_map.
  - apply indentless_sequence_entry_map.
  - apply block_mapping_key_map.
  - apply block_mapping_key_map.
  - apply block_mapping_value_map.
  - apply flow_sequence_entry_map.
  - apply flow_sequence_entry_map.
  - apply flow_sequence_entry_mapping_key_map.
  - apply flow_sequence_entry_mapping_value_map.
  - apply flow_sequence_entry_mapping_end_map.
  - apply flow_mapping_key_map.
  - apply flow_mapping_key_map.
  - apply flow_mapping_value_map.
  - apply flow_mapping_value_map.
  - reflexivity.
Qed.
End Map.
