(* C15, parser half: the composition theorem of Proofs/DocIndep.v restated for the model's own driver
   [Pipe.parse_all] (the function the extracted model runs and the correspondence runs compare with the
   implementation). *)
From Coq Require Import List NArith Bool Lia.
Import ListNotations.
Require Import Parser SBase SPrim SDir SScalar SFetch Pipe Grammar C02run DocRun DocShift DocIndep.

Lemma parse_all_steps fuel : forall p se acc l,
  parse_all fuel p se acc = (l, PDone) ->
  exists evs pe, l = rev acc ++ evs /\ steps p evs pe /\ p_state pe = SEnd.
Proof.
  induction fuel as [|fuel IH]; intros p se acc l H; [discriminate|]. rewrite parse_all_S in H.
  destruct (p_state p) eqn:ES;
    try (unfold step_result in H; destruct (state_machine p) as [[ev p']|[|ss mm]|nn] eqn:E;
         [ apply IH in H; destruct H as (evs & pe & -> & HS & HE); exists (ev :: evs), pe;
           split; [cbn [rev]; rewrite <- app_assoc; reflexivity|split; [econstructor; eauto|exact HE]]
         | destruct se; discriminate | discriminate | discriminate ]).
  inversion H; subst. exists [], p. rewrite app_nil_r. repeat split; [constructor|exact ES].
Qed.

(* a run of the state machine that reaches SEnd is what the driver returns, unless its fuel ends first *)
Lemma steps_parse_all_fuel : forall p evs pe, steps p evs pe -> p_state pe = SEnd ->
  forall fuel se acc, parse_all fuel p se acc = (rev acc ++ evs, PDone)
                      \/ ((fuel <= length evs)%nat /\ snd (parse_all fuel p se acc) = PFuel).
Proof.
  induction 1 as [p|p e p1 l p2 H1 H2 IH]; intros HE fuel se acc;
    (destruct fuel as [|fuel]; [right; split; [lia|reflexivity]|]).
  - rewrite parse_all_S, HE, app_nil_r. left. reflexivity.
  - assert (E : parse_all (S fuel) p se acc = parse_all fuel p1 se (e :: acc)).
    { rewrite parse_all_S. unfold step_result. rewrite H1. pose proof (step_not_end _ _ H1) as NE.
      destruct (p_state p); try reflexivity. contradiction. }
    rewrite E. destruct (IH HE fuel se (e :: acc)) as [R|[L R]].
    + left. rewrite R. cbn [rev]. rewrite <- app_assoc. reflexivity.
    + right. split; [cbn [length]; lia|exact R].
Qed.

Lemma steps_parse_all : forall p evs pe, steps p evs pe -> p_state pe = SEnd ->
  forall fuel se acc, (length evs < fuel)%nat -> parse_all fuel p se acc = (rev acc ++ evs, PDone).
Proof. intros p evs pe HS HE fuel se acc Hf. destruct (steps_parse_all_fuel p evs pe HS HE fuel se acc) as [G|[L _]]; [exact G|lia]. Qed.

(* The composition theorem for the model's driver: if the driver accepts the token streams of A and of B, it accepts
   "tokens of A without StreamEnd, DocumentEnd, tokens of B without StreamStart" for every scanner verdict and every
   sufficient fuel, and the events are A's without StreamEnd followed by B's without StreamStart, renumbered. *)
Theorem doc_composition_parse_all ssA ta sps spd ssB tb seB fA fB sa sb evA evB :
  snd ssA = TStreamStart -> Forall (fun t => snd t <> TStreamEnd) ta ->
  parse_all fA (init_parser (ssA :: ta ++ [(sps, TStreamEnd)]) false) sa [] = (evA, PDone) ->
  parse_all fB (init_parser (ssB :: tb ++ [seB]) false) sb [] = (evB, PDone) ->
  exists evC,
    (forall fuel sc, (length evA + length evB < fuel)%nat ->
       parse_all fuel (init_parser (ssA :: ta ++ (spd, TDocumentEnd) :: tb ++ [seB]) false) sc [] = (evC, PDone))
    /\ DocRun.evs_of evC
       = removelast (DocRun.evs_of evA)
         ++ map (shift_ev (count_anchored (DocRun.evs_of evA))) (tl (DocRun.evs_of evB)).
Proof.
  intros H1 H2 HA HB.
  apply parse_all_steps in HA. destruct HA as (ea & pa & -> & SA & EA).
  apply parse_all_steps in HB. destruct HB as (eb & pb & -> & SB & EB). cbn [rev app] in *.
  destruct (doc_composition_events ssA ta sps spd ssB tb seB ea eb H1 H2) as (evC & (pc & SC & EC) & EV).
  { exists pa. split; assumption. }
  { exists pb. split; assumption. }
  exists evC. split; [|exact EV]. intros fuel sc Hf.
  apply (steps_parse_all _ _ _ SC EC fuel sc []).
  assert (L : length evC = length (DocRun.evs_of evC)) by (unfold DocRun.evs_of; rewrite map_length; reflexivity).
  rewrite L, EV, app_length, map_length.
  assert (L1 : (length (removelast (DocRun.evs_of ea)) <= length ea)%nat).
  { unfold DocRun.evs_of. generalize (map fst ea) as l, (map_length (@fst event span) ea).
    intros l <-. induction l as [|x [|y r] IHl]; cbn [removelast length] in *; lia. }
  assert (L2 : (length (tl (DocRun.evs_of eb)) <= length eb)%nat).
  { unfold DocRun.evs_of. destruct eb; cbn; rewrite ?map_length; lia. }
  lia.
Qed.
