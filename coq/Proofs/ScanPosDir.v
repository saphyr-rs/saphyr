(* Joint proof "every position the scanner reports is a true position" (see SCANPOS.md): the family of directives,
   tags and anchors (Model/SDir.v).

   Every function of the family only reads / consumes input and moves the mark: that is [ScanFrame.Fr_scan_*], from
   which the three contracts take their [pkeeps] part.  What is walked here is the position invariant; all helper
   lemmas have the form
       MarkOK s -> (forall r s', MarkOK s' -> Q r s') -> pwp (f ...) Q s
   plus [true_mark orig mk] for the marker [mk] at which the helper raises its errors (always the [start] mark captured
   by the entry point under the invariant).  Every [skip_non_blank] / [skip_n_non_blank 3] is justified by the value of
   the character(s) just peeked: the character-class lemmas at the top show that each class tested by the model
   excludes line breaks and NUL (hence, the input being NUL-free, the character is really there). *)
From Coq Require Import List NArith ZArith Bool Arith Lia.
Import ListNotations.
Require Import Parser SBase SPrim SDir SScalar SFetch Positions ScanPos ScanPosPrim.
Local Open Scope nat_scope.

Arguments Nat.ltb : simpl never.
Arguments Nat.leb : simpl never.
Arguments Nat.eqb : simpl never.
Arguments Nat.sub : simpl never.

(* character classes tested by this family exclude breaks and NUL *)
Lemma uri_char_not_breakz c : is_uri_char c = true -> is_breakz c = false.
Proof. intros H. class_not_breakz c H. Qed.
Lemma tag_char_not_breakz c : is_tag_char c = true -> is_breakz c = false.
Proof. intros H. class_not_breakz c H. Qed.
Lemma anchor_char_not_breakz c : is_anchor_char c = true -> is_breakz c = false.
Proof. intros H. class_not_breakz c H. Qed.
(* after one character has been consumed, offset i+1 of the old input is offset i of the new one *)
Lemma rnth_shift s s' i : rem s = rnth s 0 :: rem s' -> rnth s (S i) = rnth s' i.
Proof. intros R. unfold rnth at 1. rewrite R. reflexivity. Qed.

Section PosDir.
Variable orig : list chr.
Hypothesis no_nul : Forall (fun c => c <> 0%N) orig.
Notation pwp := (swp (true_mark orig)).
Notation MarkAt := (MarkAt orig).
Notation MarkOK := (MarkOK orig).
Notation TM := (true_mark orig).

(* primitives at the level of [MarkOK] *)
Lemma A_look n (Q : unit -> sst -> Prop) s :
  MarkOK s -> (forall s', MarkOK s' -> rem s' = rem s -> Q tt s') -> pwp (look str_ops n) Q s.
Proof using no_nul.
  intros [pre HM] HQ. apply (pwp_look orig no_nul n pre); [exact HM|]. intros s' M' R' I'.
  apply HQ; [exists pre; exact M'|exact R'].
Qed.
Lemma A_look_ch (Q : chr -> sst -> Prop) s :
  MarkOK s -> (forall s', MarkOK s' -> rem s' = rem s -> Q (rnth s' 0) s') -> pwp (look_ch str_ops) Q s.
Proof using no_nul.
  intros [pre HM] HQ. apply (pwp_look_ch orig no_nul pre); [exact HM|]. intros s' M' R' I'.
  apply HQ; [exists pre; exact M'|exact R'].
Qed.
(* skip_non_blank on a character whose value (just peeked) excludes a break and NUL *)
Lemma A_skip_nb (Q : unit -> sst -> Prop) s :
  MarkOK s -> is_breakz (rnth s 0) = false ->
  (forall s', MarkOK s' -> rem s = rnth s 0 :: rem s' -> Q tt s') -> pwp (skip_non_blank str_ops) Q s.
Proof using no_nul.
  intros [pre HM] Hz HQ.
  apply (pwp_skip_plain_z orig no_nul (skip_non_blank str_ops) pre); [right; reflexivity|exact HM|exact Hz|].
  intros s' M' R' _. apply HQ; [eexists; exact M'|exact R'].
Qed.
(* the bulk loops followed by the [adv_mark] of their count *)
Lemma A_skip_while {B} F p (k : SM B) (Q : B -> sst -> Prop) s :
  (forall c, p c = true -> is_breakz c = false) ->
  MarkOK s -> (forall s', MarkOK s' -> pwp k Q s') ->
  pwp (bind (in_skip_while str_ops F p) (fun n => bind (adv_mark n) (fun _ => k))) Q s.
Proof using no_nul.
  intros Hp [pre HM] HQ. apply swp_bind. apply (pwp_in_skip_while orig no_nul); [exact Hp|]. intros w s1 R1 Fp Fb Ex I1.
  apply swp_bind. apply (pwp_adv_mark_over orig no_nul pre w _ s s1); [exact HM|exact R1|apply inonly_mark; exact I1|exact Fb|].
  intros s2 M2 _ _. apply HQ. eexists; exact M2.
Qed.
Lemma A_fetch_alpha {B} F acc (k : list chr * N -> SM B) (Q : B -> sst -> Prop) s :
  MarkOK s -> (forall r s', MarkOK s' -> pwp (k r) Q s') ->
  pwp (bind (in_fetch_while_alpha str_ops F acc) (fun r => bind (adv_mark (snd r)) (fun _ => k r))) Q s.
Proof using no_nul.
  intros [pre HM] HQ. apply swp_bind. apply (pwp_in_fetch_while_alpha orig no_nul). intros w s1 R1 Fp Fb Ex I1.
  apply swp_bind. cbn [snd].
  apply (pwp_adv_mark_over orig no_nul pre w _ s s1); [exact HM|exact R1|apply inonly_mark; exact I1|exact Fb|].
  intros s2 M2 _ _. apply HQ. eexists; exact M2.
Qed.

(* scan_uri_escapes: '%' and two hex digits have just been peeked, then [skip_n_non_blank 3] *)
Lemma A_uri_escapes mk (Q : chr -> sst -> Prop) s :
  TM mk -> MarkOK s -> (forall c s', MarkOK s' -> Q c s') -> pwp (scan_uri_escapes str_ops mk) Q s.
Proof using no_nul.
  intros Hmk K HQ. cbv beta delta [scan_uri_escapes].
  match goal with |- swp _ (?g 5 0%N 0%N 0%N true) _ _ =>
    cut (forall n w ln cd fs s, MarkOK s -> pwp (g n w ln cd fs) Q s); [intros H; apply H; exact K|] end.
  clear s K. induction n as [|n IH]; intros w ln cd fs s K; [exact I|].
  cbv beta iota zeta.
  apply swp_bind. eapply A_look; [exact K|]. intros s1 K1 R1.
  apply swp_bind. apply swp_peek. apply swp_bind. apply swp_peekn. apply swp_bind. apply swp_peekn. cbv beta.
  difE Ec; [apply swp_fail; exact Hmk|].
  apply negb_false_iff in Ec. apply andb_true_iff in Ec as [Ec H2]. apply andb_true_iff in Ec as [H0 H1].
  apply swp_bind.
  match goal with |- swp _ _ ?QQ _ => assert (HC : forall r, QQ r s1) end.
  { intros [w' cd']. cbv beta iota zeta.
    destruct K1 as [pre M1].
    apply swp_bind. apply (pwp_skip_n_non_blank_z orig no_nul 3 pre); [exact M1| |].
    - intros i Hi. destruct i as [|[|[|i]]]; [| | |lia].
      + apply (eqb_not_breakz _ 37%N); [exact H0|reflexivity].
      + apply hex_not_breakz; exact H1.
      + apply hex_not_breakz; exact H2.
    - intros s2 M2 _ _. assert (G2 : MarkOK s2) by (eexists; exact M2).
      dif.
      + dif; [apply swp_ret; apply HQ; exact G2|apply swp_fail; exact Hmk].
      + apply IH; exact G2. }
  destruct fs; repeat dif; try (apply swp_fail; exact Hmk); match goal with |- swp _ (ret ?x) _ _ => exact (HC x) end.
Qed.

(* tags *)
Lemma A_tag_handle F d mk (Q : list chr -> sst -> Prop) s :
  TM mk -> MarkOK s -> (forall r s', MarkOK s' -> Q r s') -> pwp (scan_tag_handle str_ops F d mk) Q s.
Proof using no_nul.
  intros Hmk K HQ. unfold scan_tag_handle.
  apply swp_bind. eapply A_look_ch; [exact K|]. intros s1 K1 R1. cbv beta.
  difE E33; [apply swp_fail; exact Hmk|]. apply negb_false_iff in E33.
  apply swp_bind. eapply A_skip_nb; [exact K1|apply (eqb_not_breakz _ 33%N); [exact E33|reflexivity]|]. intros s2 K2 _.
  eapply A_fetch_alpha; [exact K2|]. intros r s3 K3.
  apply swp_bind. apply swp_peek. cbv beta.
  difE E2.
  - apply swp_bind. eapply A_skip_nb; [exact K3|apply (eqb_not_breakz _ 33%N); [exact E2|reflexivity]|]. intros s4 K4 _.
    apply swp_ret. apply HQ; exact K4.
  - dif; [apply swp_fail; exact Hmk|apply swp_ret; apply HQ; exact K3].
Qed.

Lemma A_uri_loop F p mk acc (Q : list chr * N -> sst -> Prop) s :
  (forall c, p c = true -> is_breakz c = false) ->
  TM mk -> MarkOK s -> (forall r s', MarkOK s' -> Q r s') -> pwp (uri_loop str_ops F p mk acc) Q s.
Proof using no_nul.
  intros Hp Hmk K HQ. unfold uri_loop.
  match goal with |- swp _ (?g F acc 0%N) _ _ =>
    cut (forall f a n s, MarkOK s -> pwp (g f a n) Q s); [intros H; apply H; exact K|] end.
  clear s K. induction f as [|f IH]; intros a n s K; [exact I|].
  cbv beta iota zeta.
  apply swp_bind. eapply A_look_ch; [exact K|]. intros s1 K1 R1. cbv beta.
  difE Ep; [|apply swp_ret; apply HQ; exact K1].
  dif.
  - apply swp_bind. eapply A_uri_escapes; [exact Hmk|exact K1|]. intros e s2 K2. apply IH; exact K2.
  - apply swp_bind. eapply A_skip_nb; [exact K1|apply Hp; exact Ep|]. intros s2 K2 _. apply IH; exact K2.
Qed.

Lemma A_tag_prefix F mk (Q : list chr -> sst -> Prop) s :
  TM mk -> MarkOK s -> (forall r s', MarkOK s' -> Q r s') -> pwp (scan_tag_prefix str_ops F mk) Q s.
Proof using no_nul.
  intros Hmk K HQ. unfold scan_tag_prefix.
  apply swp_bind. eapply A_look_ch; [exact K|]. intros s1 K1 R1. cbv beta.
  apply swp_bind.
  match goal with |- swp _ _ ?QQ _ => assert (HC : forall acc s', MarkOK s' -> QQ acc s') end.
  { intros acc s' K'. cbv beta.
    apply swp_bind. eapply A_uri_loop; [exact uri_char_not_breakz|exact Hmk|exact K'|]. intros r s2 K2.
    apply swp_ret. apply HQ; exact K2. }
  difE E33.
  - apply swp_bind. eapply A_skip_nb; [exact K1|apply (eqb_not_breakz _ 33%N); [exact E33|reflexivity]|]. intros s2 K2 _.
    apply swp_ret. apply HC; exact K2.
  - difE Et; [apply swp_fail; exact Hmk|]. apply negb_false_iff in Et. dif.
    + apply swp_bind. eapply A_uri_escapes; [exact Hmk|exact K1|]. intros e s2 K2. apply swp_ret. apply HC; exact K2.
    + apply swp_bind. eapply A_skip_nb; [exact K1|apply tag_char_not_breakz; exact Et|]. intros s2 K2 _.
      apply swp_ret. apply HC; exact K2.
Qed.

(* the caller has seen '!' at offset 0 and '<' at offset 1 *)
Lemma A_verbatim_tag F mk (Q : list chr -> sst -> Prop) s :
  TM mk -> MarkOK s -> rnth s 0 = 33%N -> rnth s 1 = 60%N ->
  (forall r s', MarkOK s' -> Q r s') -> pwp (scan_verbatim_tag str_ops F mk) Q s.
Proof using no_nul.
  intros Hmk K H0 H1 HQ. unfold scan_verbatim_tag.
  apply swp_bind. eapply A_skip_nb; [exact K|rewrite H0; reflexivity|]. intros s1 K1 R1.
  assert (H1' : rnth s1 0 = 60%N) by (rewrite <- (rnth_shift s s1 0 R1); exact H1).
  apply swp_bind. eapply A_skip_nb; [exact K1|rewrite H1'; reflexivity|]. intros s2 K2 _.
  apply swp_bind. eapply A_uri_loop; [exact uri_char_not_breakz|exact Hmk|exact K2|]. intros r s3 K3.
  apply swp_bind. apply swp_peek. cbv beta.
  difE E62; [apply swp_fail; exact Hmk|]. apply negb_false_iff in E62.
  apply swp_bind. eapply A_skip_nb; [exact K3|apply (eqb_not_breakz _ 62%N); [exact E62|reflexivity]|]. intros s4 K4 _.
  apply swp_ret. apply HQ; exact K4.
Qed.

Lemma A_tag_shorthand_suffix F head mk (Q : list chr -> sst -> Prop) s :
  TM mk -> MarkOK s -> (forall r s', MarkOK s' -> Q r s') -> pwp (scan_tag_shorthand_suffix str_ops F head mk) Q s.
Proof using no_nul.
  intros Hmk K HQ. unfold scan_tag_shorthand_suffix. cbv beta zeta.
  apply swp_bind. eapply A_uri_loop; [exact tag_char_not_breakz|exact Hmk|exact K|]. intros r s1 K1.
  dif; [apply swp_fail; exact Hmk|apply swp_ret; apply HQ; exact K1].
Qed.

Theorem pos_scan_tag : forall F s, MarkOK s -> rnth s 0 = 33%N -> pwp (scan_tag str_ops F) (ppost orig s) s.
Proof using no_nul.
  intros F s K H33. pose proof (markok_true orig s K) as Hst.
  apply (pwp_ppost orig); [apply ScanFrame.Fr_scan_tag|]. unfold scan_tag, mark.
  apply swp_bind. apply swp_gets.
  apply swp_bind. eapply A_look; [exact K|]. intros s1 K1 R1.
  apply swp_bind. unfold nth_char_is. apply swp_bind. apply swp_peekn. apply swp_ret. cbv beta.
  apply swp_bind.
  match goal with |- swp _ _ ?QQ _ => assert (HC : forall hs s', MarkOK s' -> QQ hs s') end.
  { intros hs s' K'. cbv beta.
    apply swp_bind. eapply A_look_ch; [exact K'|]. intros s2 K2 R2.
    apply swp_bind. unfold flow_level. apply swp_gets. cbv beta.
    dif; [|apply swp_fail; exact Hst].
    apply swp_bind. apply swp_gets. apply swp_ret.
    split; [exact K2|]. split; [exact Hst|apply markok_true; exact K2]. }
  difE Ev.
  - apply N.eqb_eq in Ev.
    apply swp_bind. eapply A_verbatim_tag; [exact Hst|exact K1|rewrite (rnth_eq s s1 0 R1); exact H33|exact Ev|].
    intros sfx s2 K2. apply swp_ret. apply HC; exact K2.
  - apply swp_bind. eapply A_tag_handle; [exact Hst|exact K1|]. intros h s2 K2.
    dif.
    + apply swp_bind. eapply A_tag_shorthand_suffix; [exact Hst|exact K2|]. intros sfx s3 K3.
      apply swp_ret. apply HC; exact K3.
    + apply swp_bind. eapply A_tag_shorthand_suffix; [exact Hst|exact K2|]. intros sfx s3 K3.
      destruct sfx; apply swp_ret; apply HC; exact K3.
Qed.

(* anchors and aliases *)
Theorem pos_scan_anchor : forall F alias s, MarkOK s -> is_breakz (rnth s 0) = false ->
  pwp (scan_anchor str_ops F alias) (ppost orig s) s.
Proof using no_nul.
  intros F alias s K Hz. pose proof (markok_true orig s K) as Hst.
  apply (pwp_ppost orig); [apply ScanFrame.Fr_scan_anchor|]. unfold scan_anchor, mark.
  apply swp_bind. apply swp_gets.
  apply swp_bind. eapply A_skip_nb; [exact K|exact Hz|]. intros s1 K1 _.
  apply swp_bind.
  match goal with |- swp _ (?g F []) ?QQ _ =>
    set (Q' := QQ);
    assert (HC : forall r s', MarkOK s' -> Q' r s');
    [|cut (forall f acc s', MarkOK s' -> pwp (g f acc) Q' s'); [intros H; apply H; exact K1|]] end.
  { intros r s' K'. unfold Q'. destruct r; [apply swp_fail; exact Hst|].
    apply swp_bind. apply swp_gets. apply swp_ret.
    split; [exact K'|]. split; [exact Hst|apply markok_true; exact K']. }
  induction f as [|f IH]; intros acc s' K'; [exact I|].
  cbv beta iota zeta.
  apply swp_bind. eapply A_look_ch; [exact K'|]. intros s2 K2 R2. cbv beta.
  difE Ea.
  - apply swp_bind. eapply A_skip_nb; [exact K2|apply anchor_char_not_breakz; exact Ea|]. intros s3 K3 _.
    apply IH; exact K3.
  - apply swp_ret. apply HC; exact K2.
Qed.

(* directives *)
Lemma A_version_number F mk (Q : N -> sst -> Prop) s :
  TM mk -> MarkOK s -> (forall r s', MarkOK s' -> Q r s') -> pwp (scan_version_directive_number str_ops F mk) Q s.
Proof using no_nul.
  intros Hmk K HQ. unfold scan_version_directive_number.
  match goal with |- swp _ (?g F 0%N 0%N) _ _ =>
    cut (forall f val len s, MarkOK s -> pwp (g f val len) Q s); [intros H; apply H; exact K|] end.
  clear s K. induction f as [|f IH]; intros val len s K; [exact I|].
  cbv beta iota zeta.
  apply swp_bind. eapply A_look_ch; [exact K|]. intros s1 K1 R1. cbv beta.
  difE Ed.
  - dif; [apply swp_fail; exact Hmk|].
    apply swp_bind. dif; [apply swp_panic|]. apply swp_ret.
    apply swp_bind. eapply A_skip_nb; [exact K1|apply digit_not_breakz; exact Ed|]. intros s2 K2 _.
    apply IH; exact K2.
  - dif; [apply swp_fail; exact Hmk|apply swp_ret; apply HQ; exact K1].
Qed.

(* the two directive values return a token whose span starts at [mk] and ends at the current mark *)
Lemma A_version_value F mk (Q : token -> sst -> Prop) s :
  TM mk -> MarkOK s -> (forall t s', MarkOK s' -> true_tok orig t -> Q t s') ->
  pwp (scan_version_directive_value str_ops F mk) Q s.
Proof using no_nul.
  intros Hmk K HQ. unfold scan_version_directive_value, mark.
  apply (A_skip_while _ is_blank); [exact blank_not_breakz|exact K|]. intros s1 K1.
  apply swp_bind. eapply A_version_number; [exact Hmk|exact K1|]. intros major s2 K2.
  apply swp_bind. apply swp_peek. cbv beta.
  difE E46; [apply swp_fail; exact Hmk|]. apply negb_false_iff in E46.
  apply swp_bind. eapply A_skip_nb; [exact K2|apply (eqb_not_breakz _ 46%N); [exact E46|reflexivity]|]. intros s3 K3 _.
  apply swp_bind. eapply A_version_number; [exact Hmk|exact K3|]. intros minor s4 K4.
  apply swp_bind. apply swp_gets. apply swp_ret. apply HQ; [exact K4|].
  split; [exact Hmk|exact (markok_true orig s4 K4)].
Qed.

Lemma A_tag_directive_value F mk (Q : token -> sst -> Prop) s :
  TM mk -> MarkOK s -> (forall t s', MarkOK s' -> true_tok orig t -> Q t s') ->
  pwp (scan_tag_directive_value str_ops F mk) Q s.
Proof using no_nul.
  intros Hmk K HQ. unfold scan_tag_directive_value, mark.
  apply (A_skip_while _ is_blank); [exact blank_not_breakz|exact K|]. intros s1 K1.
  apply swp_bind. eapply A_tag_handle; [exact Hmk|exact K1|]. intros h s2 K2.
  apply (A_skip_while _ is_blank); [exact blank_not_breakz|exact K2|]. intros s3 K3.
  apply swp_bind. eapply A_tag_prefix; [exact Hmk|exact K3|]. intros p s4 K4.
  apply swp_bind. eapply A_look; [exact K4|]. intros s5 K5 R5.
  apply swp_bind. apply swp_peek. cbv beta.
  dif; [|apply swp_fail; exact Hmk].
  apply swp_bind. apply swp_gets. apply swp_ret. apply HQ; [exact K5|].
  split; [exact Hmk|exact (markok_true orig s5 K5)].
Qed.

Lemma A_directive_name F (Q : list chr -> sst -> Prop) s :
  MarkOK s -> (forall r s', MarkOK s' -> Q r s') -> pwp (scan_directive_name str_ops F) Q s.
Proof using no_nul.
  intros K HQ. pose proof (markok_true orig s K) as Hst. unfold scan_directive_name, mark.
  apply swp_bind. apply swp_gets.
  eapply A_fetch_alpha; [exact K|]. intros r s1 K1.
  destruct (fst r) as [|x l]; [apply swp_fail; exact Hst|].
  apply swp_bind. apply swp_peek. cbv beta.
  dif; [apply swp_ret; apply HQ; exact K1|apply swp_fail; exact Hst].
Qed.

Theorem pos_scan_directive : forall F s, MarkOK s -> is_breakz (rnth s 0) = false ->
  pwp (scan_directive str_ops F) (ppost orig s) s.
Proof using no_nul.
  intros F s K Hz. pose proof (markok_true orig s K) as Hst.
  apply (pwp_ppost orig); [apply ScanFrame.Fr_scan_directive|]. unfold scan_directive, mark.
  apply swp_bind. apply swp_gets.
  apply swp_bind. eapply A_skip_nb; [exact K|exact Hz|]. intros s1 K1 _.
  apply swp_bind. eapply A_directive_name; [exact K1|]. intros name s2 K2.
  apply swp_bind.
  match goal with |- swp _ _ ?QQ _ => assert (HC : forall tk s', MarkOK s' -> true_tok orig tk -> QQ tk s') end.
  { intros tk s' M' Htk. cbv beta.
    apply swp_bind. eapply swp_mono; [apply (pos_skip_ws_to_eol orig no_nul); exact M'|]. intros tw s3 [M3 _].
    apply swp_bind. unfold next_is. apply swp_bind. apply swp_peek. apply swp_ret. cbv beta.
    dif; [|apply swp_fail; exact Hst].
    destruct M3 as [pre M3].
    apply swp_bind. apply (pwp_look orig no_nul 2 pre); [exact M3|]. intros s4 M4 R4 I4.
    apply swp_bind. apply (pwp_skip_linebreak orig no_nul pre); [exact M4| |].
    - intros _. apply swp_ret. split; [exists pre; exact M4|exact Htk].
    - intros s5 b rest _ _ _ M5 _ _. apply swp_ret. split; [eexists; exact M5|exact Htk]. }
  dif.
  - eapply A_version_value; [exact Hst|exact K2|]. intros tk s3 K3 Htk. apply HC; assumption.
  - dif.
    + eapply A_tag_directive_value; [exact Hst|exact K2|]. intros tk s3 K3 Htk. apply HC; assumption.
    + apply (A_skip_while _ (fun c => negb (is_breakz c))); [exact negb_breakz_not_breakz|exact K2|]. intros s3 K3.
      apply swp_bind. apply swp_gets. apply swp_ret. apply HC; [exact K3|].
      split; [exact Hst|exact (markok_true orig s3 K3)].
Qed.

End PosDir.

Print Assumptions pos_scan_directive.
Print Assumptions pos_scan_tag.
Print Assumptions pos_scan_anchor.
Check pos_scan_directive.
Check pos_scan_tag.
Check pos_scan_anchor.
