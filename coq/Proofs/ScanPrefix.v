(* C15, scanner level: PREFIX STABILITY of the scanner at a document-end marker line.

   Two runs of the scanner model over the STRING input are related: side 1 reads a text that ends (end of input,
   NUL beyond), side 2 reads the same text followed by  [TX d] = "...\n" ++ d .  The text of side 1 is NUL-free and
   ends with a line break (or is empty), so whenever side 1 stands at the end of its input it stands at column 0
   with "leading white space" set.  Relational calculus [swp d]: when side 1 ends with a value, side 2 does not end
   in an error and, if it ends with a value, the postcondition holds; a run of side 1 that ends in an error, and
   OutOfFuel / Panic on either side, are no concern here.  That is [lwp] of ScanLock.v but for the error of side 1,
   which [lwp] matches with an error of side 2; the facts about the string input alone are those of ScanLock.v.

   The layout is that of ScanShift.v / ScanBrk.v, and the alignment vocabulary means something different:
     [b1 c]      what side 2 shows where side 1 shows [c] (positions 0..2, and every position inside side 1's
                 text): NUL becomes '.', anything else itself;
     [nbz c]     c is neither a line break nor NUL (ScanBrk: "not a line feed");
     [noLF k l]  the first k characters of l are [nbz] (then position k lies inside side 1's text).
   Token queues are related by [TS d]: equal tokens, or the one class on which the two sides genuinely differ:
   an EMPTY block scalar that ends at the end of input carries the span [indicator, end] on side 1 and the
   empty span [end, end] before a marker line on side 2 (a finding about the real scanner). *)
From Coq Require Import List NArith ZArith Bool Arith Lia.
Import ListNotations.
Require Import Parser SBase SPrim SDir SScalar SFetch ScanLock.
Require ScalarKit.
Local Open Scope nat_scope.

Notation bst := (sc strin).
Notation BM := (@M strin).
Notation sops := str_ops.

Arguments N.sub : simpl never.

(* 1. The appended text; alignment vocabulary *)
Definition TX (d : list chr) : list chr := (46 :: 46 :: 46 :: 10 :: d)%N.

Definition b1 (c : chr) : chr := if (c =? 0)%N then 46%N else c.
Definition nbz (c : chr) : Prop := is_breakz c = false.
Definition noLF (k : nat) (l : list chr) : Prop := forall i, i < k -> nbz (nth i l 0%N).

Lemma b1_other c : c <> 0%N -> b1 c = c.
Proof. intros H. unfold b1. destruct (N.eqb_spec c 0); [contradiction|reflexivity]. Qed.
Lemma b1_0 : b1 0%N = 46%N.
Proof. reflexivity. Qed.
Lemma nbz_nz c : nbz c -> c <> 0%N.
Proof. intros H ->. discriminate H. Qed.
Lemma nbz_nbk c : nbz c -> is_break c = false.
Proof. unfold nbz, is_breakz. intros H. apply orb_false_iff in H. tauto. Qed.
Lemma b1_nbz c : nbz c -> b1 c = c.
Proof. intros H. apply b1_other, nbz_nz, H. Qed.
(* [nbz_by E]: the goal [nbz c] (or [is_breakz c = false]) follows from the boolean fact E about c *)
Ltac nbz_by E :=
  unfold nbz;
  match goal with
  | |- is_breakz ?c = false =>
      let Ez := fresh "Ez" in
      destruct (is_breakz c) eqn:Ez; [exfalso|reflexivity];
      apply ScalarKit.breakz_cases in Ez; destruct Ez as [Ez|[Ez|Ez]]; rewrite Ez in E; discriminate E
  end.

Lemma noLF_0 l : noLF 0 l.
Proof. intros i Hi. lia. Qed.
Lemma noLF_1 l : nbz (nth 0 l 0%N) -> noLF 1 l.
Proof. intros H i Hi. assert (i = 0) as -> by lia. exact H. Qed.
Lemma noLF_le k k' l : noLF k l -> k' <= k -> noLF k' l.
Proof. intros H Hk i Hi. apply H. lia. Qed.
Lemma noLF_S k l : noLF k l -> nbz (nth k l 0%N) -> noLF (S k) l.
Proof. intros H Hk i Hi. destruct (Nat.eq_dec i k) as [->|Hne]; [exact Hk|apply H; lia]. Qed.
Lemma noLF_cons k c l : noLF (S k) (c :: l) <-> nbz c /\ noLF k l.
Proof.
  split.
  - intros H. split; [exact (H 0 ltac:(lia))|]. intros i Hi. exact (H (S i) ltac:(lia)).
  - intros [Hc H] i Hi. destruct i as [|i]; [exact Hc|]. cbn [nth]. apply H. lia.
Qed.
Lemma noLF_tl k l : noLF (S k) l -> noLF k (tl l).
Proof.
  intros H. destruct l as [|c l]; [|apply (noLF_cons k c l); exact H].
  specialize (H 0 ltac:(lia)). discriminate H.
Qed.
Lemma noLF_skipn k n l : noLF (n + k) l -> noLF k (skipn n l).
Proof.
  revert l. induction n as [|n IH]; intros l H; [exact H|].
  destruct l as [|c l].
  - specialize (H 0 ltac:(lia)). discriminate H.
  - cbn [skipn]. apply IH. apply (noLF_cons (n + k) c l). exact H.
Qed.
Lemma noLF_len k l : noLF k l -> k <= length l.
Proof.
  revert l. induction k as [|k IH]; intros l H; [lia|].
  destruct l as [|c l]; [specialize (H 0 ltac:(lia)); discriminate H|].
  cbn [length]. apply le_n_S. apply IH. apply (noLF_cons k c l). exact H.
Qed.

(* character classes that do not tell NUL from '.' *)
Definition bblind (p : chr -> bool) : Prop := forall c, p (b1 c) = p c.
Lemma bblind_of p : p 46%N = p 0%N -> bblind p.
Proof. intros H c. unfold b1. destruct (N.eqb_spec c 0) as [->|]; [exact H|reflexivity]. Qed.
Lemma b1_is_break : bblind is_break. Proof. apply bblind_of. reflexivity. Qed.
Lemma b1_is_blank : bblind is_blank. Proof. apply bblind_of. reflexivity. Qed.
Lemma b1_is_digit : bblind is_digit. Proof. apply bblind_of. reflexivity. Qed.
Lemma b1_is_alpha : bblind is_alpha. Proof. apply bblind_of. reflexivity. Qed.
Lemma b1_is_hex : bblind is_hex. Proof. apply bblind_of. reflexivity. Qed.
Lemma b1_is_flow : bblind is_flow. Proof. apply bblind_of. reflexivity. Qed.
(* literals other than NUL, '.', LF, CR *)
Definition lit (k : chr) : Prop := ((k =? 0) || (k =? 46) || (k =? 10) || (k =? 13))%N = false.
Lemma lit_parts k : lit k -> k <> 0%N /\ k <> 46%N /\ k <> 10%N /\ k <> 13%N.
Proof.
  unfold lit. intros H. repeat (apply orb_false_iff in H; destruct H as [H ?]).
  repeat split; apply N.eqb_neq; assumption.
Qed.
Lemma b1_eqb c k : lit k -> (b1 c =? k)%N = (c =? k)%N.
Proof.
  intros H. destruct (lit_parts k H) as (K0 & K46 & _). unfold b1. destruct (N.eqb_spec c 0) as [->|]; [|reflexivity].
  destruct (N.eqb_spec 46 k); destruct (N.eqb_spec 0 k); try reflexivity; congruence.
Qed.
Lemma b1_eqb_blind k : lit k -> bblind (fun c => (c =? k)%N).
Proof. intros H c. apply b1_eqb. exact H. Qed.
Lemma b1_lf_or_cr c : ((b1 c =? 10) || (b1 c =? 13))%N = ((c =? 10) || (c =? 13))%N.
Proof. unfold b1. destruct (N.eqb_spec c 0) as [->|]; reflexivity. Qed.
Lemma b1_eq_cr c : (b1 c =? 13)%N = (c =? 13)%N.
Proof. unfold b1. destruct (N.eqb_spec c 0) as [->|]; reflexivity. Qed.
Lemma b1_eq_lf c : (b1 c =? 10)%N = (c =? 10)%N.
Proof. unfold b1. destruct (N.eqb_spec c 0) as [->|]; reflexivity. Qed.
Lemma lit_eq_nbz c k : lit k -> (c =? k)%N = true -> nbz c.
Proof.
  intros H E. apply N.eqb_eq in E. subst c. destruct (lit_parts k H) as (K0 & _ & K10 & K13).
  unfold nbz, is_breakz, is_break, is_z.
  destruct (N.eqb_spec k 10); [contradiction|]. destruct (N.eqb_spec k 13); [contradiction|].
  destruct (N.eqb_spec k 0); [contradiction|]. reflexivity.
Qed.
Ltac b1_norm :=
  rewrite ?b1_is_break, ?b1_is_blank, ?b1_is_digit, ?b1_is_alpha, ?b1_is_hex, ?b1_is_flow, ?b1_lf_or_cr,
          ?b1_eq_cr, ?b1_eq_lf;
  repeat match goal with |- context [(b1 ?c =? ?k)%N] => rewrite (b1_eqb c k) by reflexivity end.

(* texts that end with a line break (or are empty), NUL-free texts *)
Definition EB (l : list chr) : Prop := l = [] \/ is_break (last l 0%N) = true.
Definition NN (l : list chr) : Prop := Forall (fun c => c <> 0%N) l.

Lemma last_skipn {A} n (l : list A) x : n < length l -> last (skipn n l) x = last l x.
Proof.
  revert l. induction n as [|n IH]; intros l H; [reflexivity|].
  destruct l as [|a l]; [cbn in H; lia|]. cbn [skipn]. cbn [length] in H. rewrite IH by lia.
  destruct l as [|b l]; [cbn in H; lia|]. reflexivity.
Qed.
Lemma EB_skipn n l : EB l -> n <= length l -> EB (skipn n l).
Proof.
  intros [->|H] Hn; [left; destruct n; reflexivity|].
  destruct (Nat.eq_dec n (length l)) as [->|Hne]; [left; apply skipn_all|].
  right. rewrite last_skipn by lia. exact H.
Qed.
Lemma NN_skipn n l : NN l -> NN (skipn n l).
Proof.
  unfold NN. revert l. induction n as [|n IH]; intros l H; [exact H|].
  destruct l as [|a l]; [constructor|]. cbn [skipn]. apply IH. inversion H; assumption.
Qed.
Lemma NN_nth l i : NN l -> i < length l -> nth i l 0%N <> 0%N.
Proof.
  unfold NN. revert i. induction l as [|a l IH]; intros i H Hi; [cbn in Hi; lia|].
  inversion H; subst. destruct i as [|i]; [assumption|]. cbn [nth]. apply IH; [assumption|cbn in Hi; lia].
Qed.
(* a text that ends with a break and starts with k non-break characters is longer than k *)
Lemma EB_noLF_lt k l : EB l -> noLF k l -> l <> [] -> k < length l.
Proof.
  intros [->|HB] HN HE; [contradiction|].
  pose proof (noLF_len k l HN) as HL.
  destruct (Nat.eq_dec k (length l)) as [->|]; [|lia]. exfalso.
  destruct (@exists_last _ l HE) as (l' & z & ->). rewrite last_last in HB.
  rewrite app_length in HN. cbn [length] in HN.
  specialize (HN (length l') ltac:(lia)). rewrite app_nth2 in HN by lia. rewrite Nat.sub_diag in HN. cbn [nth] in HN.
  apply nbz_nbk in HN. congruence.
Qed.
Lemma nbz_nonempty l : nbz (nth 0 l 0%N) -> l <> [].
Proof. intros H ->. discriminate H. Qed.
Lemma skipn_app_le {A} n (l t : list A) : n <= length l -> skipn n (l ++ t) = skipn n l ++ t.
Proof. intros H. rewrite skipn_app. replace (n - length l) with 0 by lia. reflexivity. Qed.
Lemma tl_skipn1 {A} (l : list A) : tl l = skipn 1 l.
Proof. destruct l; reflexivity. Qed.

(* 2. The relations *)
Definition rm (s : bst) : list chr := si_chars (sc_in s).         (* remaining characters *)
Definition rn (s : bst) (i : nat) : chr := nth i (rm s) 0%N.        (* the i-th of them, NUL beyond the end *)
Definition lk (s : bst) : nat := si_look (sc_in s).                 (* the string input's lookahead counter *)

Record IS (d : list chr) (i1 i2 : strin) : Prop := {
  is_chars : si_chars i2 = si_chars i1 ++ TX d;
  is_look : si_look i2 = si_look i1 }.

(* markers, spans, simple keys: equal (the names of ScanShift.v are kept) *)
Definition MS (d : list chr) (m1 m2 : marker) : Prop := m1 = m2.
Definition SPS (d : list chr) (a b : span) : Prop := a = b.
Definition KS (d : list chr) (k1 k2 : simple_key) : Prop := k1 = k2.
(* tokens: equal, or the empty block scalar at the end of input *)
Definition blk_style (st : style) : bool := match st with Literal | Folded => true | _ => false end.
Definition TS (d : list chr) (t1 t2 : token) : Prop :=
  t2 = t1 \/ exists st n a e, blk_style st = true
                              /\ t1 = ({| sp_start := a; sp_end := e |}, TScalar st (nls n []))
                              /\ t2 = ({| sp_start := e; sp_end := e |}, TScalar st (nls n [])).

(* every field but the input and the token queue *)
Definition rst (s : bst) :=
  (sc_mark s, sc_stream_start s, sc_stream_end s, sc_adjacent s, sc_ska s, sc_sks s, sc_indent s, sc_indents s,
   sc_flow_level s, sc_tokens_parsed s, sc_token_available s, sc_lws s, sc_ifms s).

(* THE STATE RELATION *)
Record SH (d : list chr) (s1 s2 : bst) : Prop := {
  sh_in : IS d (sc_in s1) (sc_in s2);
  sh_tokens : Forall2 (TS d) (sc_tokens s1) (sc_tokens s2);
  sh_rst : rst s1 = rst s2;
  sh_eb : EB (rm s1);
  sh_nn : NN (rm s1);
  sh_end : rm s1 = [] -> m_col (sc_mark s1) = 0%N /\ sc_lws s1 = true }.
Arguments sh_in {d s1 s2}. Arguments sh_tokens {d s1 s2}. Arguments sh_rst {d s1 s2}.
Arguments sh_eb {d s1 s2}. Arguments sh_nn {d s1 s2}. Arguments sh_end {d s1 s2}.
Arguments is_chars {d i1 i2}. Arguments is_look {d i1 i2}.

Definition ers {I} (s : sc I) : sc unit :=
  {| sc_in := tt; sc_mark := sc_mark s; sc_tokens := sc_tokens s;
     sc_stream_start := sc_stream_start s; sc_stream_end := sc_stream_end s; sc_adjacent := sc_adjacent s;
     sc_ska := sc_ska s; sc_sks := sc_sks s; sc_indent := sc_indent s; sc_indents := sc_indents s;
     sc_flow_level := sc_flow_level s; sc_tokens_parsed := sc_tokens_parsed s;
     sc_token_available := sc_token_available s; sc_lws := sc_lws s; sc_ifms := sc_ifms s |}.
Lemma ers_fields {I J} (s : sc I) (t : sc J) : ers s = ers t ->
  sc_mark s = sc_mark t /\ sc_tokens s = sc_tokens t /\ sc_stream_start s = sc_stream_start t
  /\ sc_stream_end s = sc_stream_end t /\ sc_adjacent s = sc_adjacent t /\ sc_ska s = sc_ska t
  /\ sc_sks s = sc_sks t /\ sc_indent s = sc_indent t /\ sc_indents s = sc_indents t
  /\ sc_flow_level s = sc_flow_level t /\ sc_tokens_parsed s = sc_tokens_parsed t
  /\ sc_token_available s = sc_token_available t /\ sc_lws s = sc_lws t
  /\ sc_ifms s = sc_ifms t.
Proof. exact (ScanLock.ers_fields s t). Qed.

Section Markers.
Variable d : list chr.
Lemma MS_refl m : MS d m m. Proof. reflexivity. Qed.
Lemma MS_eq m1 m2 : MS d m1 m2 -> m2 = m1. Proof. intros H. symmetry. exact H. Qed.
Lemma SPS_empty m1 m2 : MS d m1 m2 -> SPS d (span_empty m1) (span_empty m2).
Proof. intros ->. reflexivity. Qed.
Lemma SPS_mk a1 b1' a2 b2 : MS d a1 a2 -> MS d b1' b2 ->
  SPS d {| sp_start := a1; sp_end := b1' |} {| sp_start := a2; sp_end := b2 |}.
Proof. intros -> ->. reflexivity. Qed.
Lemma TS_refl t : TS d t t. Proof. left. reflexivity. Qed.
Lemma TS_mk sp1 sp2 t : SPS d sp1 sp2 -> TS d (sp1, t) (sp2, t).
Proof. intros ->. apply TS_refl. Qed.
Lemma TS_empty m1 m2 t : MS d m1 m2 -> TS d (span_empty m1, t) (span_empty m2, t).
Proof. intros ->. apply TS_refl. Qed.
Lemma TS_snd t1 t2 : TS d t1 t2 -> snd t2 = snd t1.
Proof. intros [->|(st & n & a & e & _ & -> & ->)]; reflexivity. Qed.
(* a token that is not a block scalar is the same on both sides *)
Lemma TS_nonscalar t1 t2 : TS d t1 t2 -> (forall st v, snd t1 <> TScalar st v) -> t2 = t1.
Proof. intros [->|(st & n & a & e & _ & -> & ->)] H; [reflexivity|]. exfalso. exact (H _ _ eq_refl). Qed.
Lemma TSs_refl l : Forall2 (TS d) l l.
Proof. induction l; constructor; [apply TS_refl|assumption]. Qed.
Lemma KS_refl k : KS d k k. Proof. reflexivity. Qed.
Lemma KSs_refl l : Forall2 (KS d) l l.
Proof. induction l; constructor; [reflexivity|assumption]. Qed.
Lemma KSs_eq l1 l2 : Forall2 (KS d) l1 l2 -> l2 = l1.
Proof. induction 1 as [|a b l1 l2 H _ IH]; [reflexivity|]. unfold KS in H. subst. reflexivity. Qed.
End Markers.

(* 3. Reading the state relation *)
Ltac skel_cbn := ScanLock.skel_cbn.

Lemma rst_fields (s t : bst) : rst s = rst t ->
  sc_mark s = sc_mark t /\ sc_stream_start s = sc_stream_start t /\ sc_stream_end s = sc_stream_end t
  /\ sc_adjacent s = sc_adjacent t /\ sc_ska s = sc_ska t /\ sc_sks s = sc_sks t
  /\ sc_indent s = sc_indent t /\ sc_indents s = sc_indents t /\ sc_flow_level s = sc_flow_level t
  /\ sc_tokens_parsed s = sc_tokens_parsed t /\ sc_token_available s = sc_token_available t
  /\ sc_lws s = sc_lws t /\ sc_ifms s = sc_ifms t.
Proof. unfold rst. intros H. inversion H. repeat split; assumption. Qed.

Section Read.
Context {d : list chr} {s1 s2 : bst} (H : SH d s1 s2).
Lemma SH_mark : sc_mark s1 = sc_mark s2. Proof. pose proof (rst_fields _ _ (sh_rst H)). tauto. Qed.
Lemma sh_mark : MS d (sc_mark s1) (sc_mark s2). Proof. exact SH_mark. Qed.
Lemma SH_line : m_line (sc_mark s1) = m_line (sc_mark s2). Proof. rewrite SH_mark. reflexivity. Qed.
Lemma SH_col : m_col (sc_mark s1) = m_col (sc_mark s2). Proof. rewrite SH_mark. reflexivity. Qed.
Lemma SH_index : m_index (sc_mark s1) = m_index (sc_mark s2). Proof. rewrite SH_mark. reflexivity. Qed.
Lemma SH_stream_start : sc_stream_start s1 = sc_stream_start s2. Proof. pose proof (rst_fields _ _ (sh_rst H)). tauto. Qed.
Lemma SH_stream_end : sc_stream_end s1 = sc_stream_end s2. Proof. pose proof (rst_fields _ _ (sh_rst H)). tauto. Qed.
Lemma SH_adjacent : sc_adjacent s1 = sc_adjacent s2. Proof. pose proof (rst_fields _ _ (sh_rst H)). tauto. Qed.
Lemma SH_ska : sc_ska s1 = sc_ska s2. Proof. pose proof (rst_fields _ _ (sh_rst H)). tauto. Qed.
Lemma SH_sks : sc_sks s1 = sc_sks s2. Proof. pose proof (rst_fields _ _ (sh_rst H)). tauto. Qed.
Lemma sh_sks : Forall2 (KS d) (sc_sks s1) (sc_sks s2). Proof. rewrite <- SH_sks. apply KSs_refl. Qed.
Lemma SH_indent : sc_indent s1 = sc_indent s2. Proof. pose proof (rst_fields _ _ (sh_rst H)). tauto. Qed.
Lemma SH_indents : sc_indents s1 = sc_indents s2. Proof. pose proof (rst_fields _ _ (sh_rst H)). tauto. Qed.
Lemma SH_flow_level : sc_flow_level s1 = sc_flow_level s2. Proof. pose proof (rst_fields _ _ (sh_rst H)). tauto. Qed.
Lemma SH_tokens_parsed : sc_tokens_parsed s1 = sc_tokens_parsed s2. Proof. pose proof (rst_fields _ _ (sh_rst H)). tauto. Qed.
Lemma SH_token_available : sc_token_available s1 = sc_token_available s2. Proof. pose proof (rst_fields _ _ (sh_rst H)). tauto. Qed.
Lemma SH_lws : sc_lws s1 = sc_lws s2. Proof. pose proof (rst_fields _ _ (sh_rst H)). tauto. Qed.
Lemma SH_ifms : sc_ifms s1 = sc_ifms s2. Proof. pose proof (rst_fields _ _ (sh_rst H)). tauto. Qed.
Lemma SH_tokens_len : length (sc_tokens s1) = length (sc_tokens s2). Proof. exact (F2_length _ _ _ (sh_tokens H)). Qed.
(* the inputs *)
Lemma SH_rm : rm s2 = rm s1 ++ TX d. Proof. exact (is_chars (sh_in H)). Qed.
Lemma SH_lk : lk s2 = lk s1. Proof. exact (is_look (sh_in H)). Qed.
(* inside side 1's text the two sides read the same character, and it is not NUL *)
Lemma SH_rn_in k : k < length (rm s1) -> rn s2 k = rn s1 k /\ rn s1 k <> 0%N.
Proof.
  intros Hk. unfold rn. rewrite SH_rm, app_nth1 by exact Hk. split; [reflexivity|]. apply NN_nth; [exact (sh_nn H)|exact Hk].
Qed.
(* up to two positions beyond the end side 2 shows '.' where side 1 shows NUL *)
Lemma SH_rn_lt k : k < length (rm s1) + 3 -> rn s2 k = b1 (rn s1 k).
Proof.
  intros Hk. destruct (Nat.lt_ge_cases k (length (rm s1))) as [HL|HL].
  - destruct (SH_rn_in k HL) as [E N0]. rewrite E, b1_other by exact N0. reflexivity.
  - unfold rn. rewrite SH_rm, app_nth2 by lia. rewrite (nth_overflow (rm s1)) by lia.
    destruct (k - length (rm s1)) as [|[|[|j]]] eqn:E; try reflexivity. lia.
Qed.
Lemma SH_rn k : noLF k (rm s1) -> rn s2 k = b1 (rn s1 k).
Proof. intros HL. apply SH_rn_lt. pose proof (noLF_len _ _ HL). lia. Qed.
Lemma SH_rn0 : rn s2 0 = b1 (rn s1 0). Proof. apply SH_rn_lt. lia. Qed.
Lemma SH_rn1' : rn s2 1 = b1 (rn s1 1). Proof. apply SH_rn_lt. lia. Qed.
Lemma SH_rn2' : rn s2 2 = b1 (rn s1 2). Proof. apply SH_rn_lt. lia. Qed.
(* behind [k] characters that are neither breaks nor NUL, position k lies inside the text *)
Lemma SH_noLF_in k : noLF k (rm s1) -> rm s1 <> [] -> k < length (rm s1).
Proof. intros HL HE. apply EB_noLF_lt; [exact (sh_eb H)|exact HL|exact HE]. Qed.
Lemma SH_rn_same k : noLF k (rm s1) -> rm s1 <> [] -> rn s2 k = rn s1 k /\ rn s1 k <> 0%N.
Proof. intros HL HE. apply SH_rn_in. apply SH_noLF_in; assumption. Qed.
Lemma SH_rn1 : nbz (rn s1 0) -> rn s2 1 = rn s1 1 /\ rn s1 1 <> 0%N.
Proof. intros H0. apply SH_rn_same; [apply noLF_1; exact H0|apply nbz_nonempty; exact H0]. Qed.
Lemma SH_rn0_other : rn s1 0 <> 0%N -> rn s2 0 = rn s1 0.
Proof. intros H0. rewrite SH_rn0. apply b1_other. exact H0. Qed.
Lemma SH_nonempty : rn s1 0 <> 0%N -> rm s1 <> [].
Proof. intros H0 E. apply H0. unfold rn. rewrite E. reflexivity. Qed.
Lemma SH_at_end : rn s1 0 = 0%N -> rm s1 = [].
Proof.
  intros H0. destruct (rm s1) as [|c l] eqn:E; [reflexivity|]. exfalso.
  pose proof (sh_nn H) as HN. rewrite E in HN. inversion HN; subst. unfold rn in H0. rewrite E in H0. cbn in H0. contradiction.
Qed.
Lemma SH_end_col : rn s1 0 = 0%N -> m_col (sc_mark s1) = 0%N /\ sc_lws s1 = true.
Proof. intros H0. apply (sh_end H). apply SH_at_end. exact H0. Qed.
(* at the end of side 1 side 2 reads the marker line *)
Lemma SH_end_rn : rm s1 = [] -> rn s2 0 = 46%N /\ rn s2 1 = 46%N /\ rn s2 2 = 46%N /\ rn s2 3 = 10%N.
Proof. intros E. unfold rn. rewrite SH_rm, E. cbn. auto. Qed.
End Read.

Ltac sh_sync H :=
  rewrite <- ?(SH_mark H), <- ?(SH_stream_start H), <- ?(SH_stream_end H), <- ?(SH_adjacent H), <- ?(SH_ska H),
          <- ?(SH_sks H), <- ?(SH_indent H), <- ?(SH_indents H), <- ?(SH_flow_level H), <- ?(SH_tokens_parsed H),
          <- ?(SH_token_available H), <- ?(SH_lws H), <- ?(SH_ifms H), <- ?(SH_tokens_len H).
Ltac sh_fwd H :=
  rewrite ?(SH_mark H), ?(SH_stream_start H), ?(SH_stream_end H), ?(SH_adjacent H), ?(SH_ska H), ?(SH_sks H),
          ?(SH_indent H), ?(SH_indents H), ?(SH_flow_level H), ?(SH_tokens_parsed H),
          ?(SH_token_available H), ?(SH_lws H), ?(SH_ifms H), ?(SH_tokens_len H).
Ltac sh_eq :=
  first [ reflexivity
        | match goal with H : SH _ _ _ |- _ = _ => solve [skel_cbn; sh_fwd H; reflexivity] end ].
Ltac rst_eq H := unfold rst; skel_cbn; sh_fwd H; reflexivity.

(* 4. The state relation under updates *)
Section Upd.
Variable d : list chr.

(* an update that touches neither the input, the queue, the column of the mark nor the flag "leading white space" *)
Lemma SH_frame s1 s2 t1 t2 : SH d s1 s2 ->
  sc_in t1 = sc_in s1 -> sc_in t2 = sc_in s2 -> Forall2 (TS d) (sc_tokens t1) (sc_tokens t2) -> rst t1 = rst t2 ->
  (rm s1 = [] -> m_col (sc_mark t1) = 0%N /\ sc_lws t1 = true) -> SH d t1 t2.
Proof.
  intros H E1 E2 HT HR HE. constructor; unfold rm; rewrite ?E1, ?E2; try apply H; assumption.
Qed.
Lemma SH_set_tokens l1 l2 s1 s2 : SH d s1 s2 -> Forall2 (TS d) l1 l2 -> SH d (set_tokens l1 s1) (set_tokens l2 s2).
Proof. intros H HL. apply (SH_frame s1 s2); auto; [rst_eq H|exact (sh_end H)]. Qed.
Lemma SH_push s1 s2 t1 t2 : SH d s1 s2 -> TS d t1 t2 ->
  SH d (set_tokens (sc_tokens s1 ++ [t1]) s1) (set_tokens (sc_tokens s2 ++ [t2]) s2).
Proof. intros H HT. apply SH_set_tokens; [exact H|]. apply Forall2_app; [apply H|]. constructor; [exact HT|constructor]. Qed.
Lemma SH_set_sks l1 l2 s1 s2 : SH d s1 s2 -> Forall2 (KS d) l1 l2 -> SH d (set_sks l1 s1) (set_sks l2 s2).
Proof.
  intros H HL. apply KSs_eq in HL. subst l2.
  apply (SH_frame s1 s2); auto; [exact (sh_tokens H)|rst_eq H|exact (sh_end H)].
Qed.
Lemma SH_set_ska b s1 s2 : SH d s1 s2 -> SH d (set_ska b s1) (set_ska b s2).
Proof. intros H. apply (SH_frame s1 s2); auto; [exact (sh_tokens H)|rst_eq H|exact (sh_end H)]. Qed.
Lemma SH_set_lws b s1 s2 : SH d s1 s2 -> (b = true \/ rm s1 <> []) -> SH d (set_lws b s1) (set_lws b s2).
Proof.
  intros H HB. apply (SH_frame s1 s2); auto; [exact (sh_tokens H)|rst_eq H|].
  intros E. destruct HB as [->|HB]; [|contradiction]. skel_cbn. split; [apply (sh_end H E)|reflexivity].
Qed.
Lemma SH_set_ta b s1 s2 : SH d s1 s2 -> SH d (set_ta b s1) (set_ta b s2).
Proof. intros H. apply (SH_frame s1 s2); auto; [exact (sh_tokens H)|rst_eq H|exact (sh_end H)]. Qed.
Lemma SH_set_ss b s1 s2 : SH d s1 s2 -> SH d (set_ss b s1) (set_ss b s2).
Proof. intros H. apply (SH_frame s1 s2); auto; [exact (sh_tokens H)|rst_eq H|exact (sh_end H)]. Qed.
Lemma SH_set_se b s1 s2 : SH d s1 s2 -> SH d (set_se b s1) (set_se b s2).
Proof. intros H. apply (SH_frame s1 s2); auto; [exact (sh_tokens H)|rst_eq H|exact (sh_end H)]. Qed.
Lemma SH_set_adj_here s1 s2 : SH d s1 s2 ->
  SH d (set_adj (m_index (sc_mark s1)) s1) (set_adj (m_index (sc_mark s2)) s2).
Proof. intros H. apply (SH_frame s1 s2); auto; [exact (sh_tokens H)|rst_eq H|exact (sh_end H)]. Qed.
Lemma SH_set_indent z l s1 s2 : SH d s1 s2 -> SH d (set_indent z l s1) (set_indent z l s2).
Proof. intros H. apply (SH_frame s1 s2); auto; [exact (sh_tokens H)|rst_eq H|exact (sh_end H)]. Qed.
Lemma SH_set_fl n s1 s2 : SH d s1 s2 -> SH d (set_fl n s1) (set_fl n s2).
Proof. intros H. apply (SH_frame s1 s2); auto; [exact (sh_tokens H)|rst_eq H|exact (sh_end H)]. Qed.
Lemma SH_set_tp n s1 s2 : SH d s1 s2 -> SH d (set_tp n s1) (set_tp n s2).
Proof. intros H. apply (SH_frame s1 s2); auto; [exact (sh_tokens H)|rst_eq H|exact (sh_end H)]. Qed.
Lemma SH_set_ifms l s1 s2 : SH d s1 s2 -> SH d (set_ifms l s1) (set_ifms l s2).
Proof. intros H. apply (SH_frame s1 s2); auto; [exact (sh_tokens H)|rst_eq H|exact (sh_end H)]. Qed.
(* the mark: anything, as long as the column stays 0 at the end of side 1 *)
Lemma SH_set_mark m s1 s2 : SH d s1 s2 -> (rm s1 = [] -> m_col m = 0%N) -> SH d (set_mark m s1) (set_mark m s2).
Proof.
  intros H HM. apply (SH_frame s1 s2); auto; [exact (sh_tokens H)|rst_eq H|].
  intros E. skel_cbn. split; [exact (HM E)|apply (sh_end H E)].
Qed.
End Upd.

Ltac sh_upd_step :=
  first [ eassumption
        | apply SH_set_ska | apply SH_set_ta | apply SH_set_ss | apply SH_set_se
        | apply SH_set_indent | apply SH_set_ifms | apply SH_set_fl | apply SH_set_tp
        | apply SH_set_adj_here ].
Ltac sh_upd := repeat sh_upd_step.

(* 5. The relational calculus *)
Definition swp (d : list chr) {A1 A2} (m1 : BM A1) (m2 : BM A2) (Q : A1 -> bst -> A2 -> bst -> Prop) (s1 s2 : bst) : Prop :=
  match m1 s1 with
  | Ok (a1, t1) => match m2 s2 with
                   | Ok (a2, t2) => Q a1 t1 a2 t2
                   | Err _ _ => False
                   | _ => True
                   end
  | _ => True
  end.

Definition Qe {A} (P : A -> bst -> bst -> Prop) : A -> bst -> A -> bst -> Prop :=
  fun a1 t1 a2 t2 => a1 = a2 /\ P a1 t1 t2.

Section Calculus.
Variable d : list chr.
Local Notation bwp := (swp d).

Lemma bwp_ret {A1 A2} (a1 : A1) (a2 : A2) (Q : A1 -> bst -> A2 -> bst -> Prop) s1 s2 :
  Q a1 s1 a2 s2 -> bwp (ret a1) (ret a2) Q s1 s2.
Proof. auto. Qed.
Lemma bwp_bind {A1 A2 B1 B2} (m1 : BM A1) (m2 : BM A2) (f1 : A1 -> BM B1) (f2 : A2 -> BM B2)
  (Q : B1 -> bst -> B2 -> bst -> Prop) s1 s2 :
  bwp m1 m2 (fun a1 t1 a2 t2 => bwp (f1 a1) (f2 a2) Q t1 t2) s1 s2 -> bwp (bind m1 f1) (bind m2 f2) Q s1 s2.
Proof.
  unfold swp, bind. destruct (m1 s1) as [[a1 t1]|e1 k1|n1|]; auto.
  destruct (m2 s2) as [[a2 t2]|e2 k2|n2|]; auto; try tauto.
  - destruct (f1 a1 t1) as [[c1 u1]|? ?|?|]; auto.
  - destruct (f1 a1 t1) as [[c1 u1]|? ?|?|]; auto.
Qed.
Lemma bwp_bind_e {A B1 B2} (m1 m2 : BM A) (f1 : A -> BM B1) (f2 : A -> BM B2) (Q : B1 -> bst -> B2 -> bst -> Prop) s1 s2 :
  bwp m1 m2 (Qe (fun a t1 t2 => bwp (f1 a) (f2 a) Q t1 t2)) s1 s2 -> bwp (bind m1 f1) (bind m2 f2) Q s1 s2.
Proof.
  intros H. apply bwp_bind. unfold swp in *. destruct (m1 s1) as [[a1 t1]|e1 k1|n1|]; auto.
  destruct (m2 s2) as [[a2 t2]|e2 k2|n2|]; auto. destruct H as [-> H]. exact H.
Qed.
Lemma bwp_mono {A1 A2} (m1 : BM A1) (m2 : BM A2) (Q Q' : A1 -> bst -> A2 -> bst -> Prop) s1 s2 :
  bwp m1 m2 Q s1 s2 -> (forall a1 t1 a2 t2, Q a1 t1 a2 t2 -> Q' a1 t1 a2 t2) -> bwp m1 m2 Q' s1 s2.
Proof.
  unfold swp. intros H HQ. destruct (m1 s1) as [[a1 t1]|e1 k1|n1|]; auto.
  destruct (m2 s2) as [[a2 t2]|e2 k2|n2|]; auto.
Qed.
(* an error on side 1: no claim *)
Lemma bwp_err_l {A1 A2} site k1 (m2 : BM A2) (Q : A1 -> bst -> A2 -> bst -> Prop) s1 s2 :
  bwp (@fail strin A1 site k1) m2 Q s1 s2.
Proof. exact I. Qed.
Lemma bwp_fail {A1 A2} site k1 k2 (Q : A1 -> bst -> A2 -> bst -> Prop) s1 s2 :
  MS d k1 k2 -> bwp (@fail strin A1 site k1) (@fail strin A2 site k2) Q s1 s2.
Proof. intros _. exact I. Qed.
Lemma bwp_panic_l {A1 A2} site (m2 : BM A2) (Q : A1 -> bst -> A2 -> bst -> Prop) s1 s2 : bwp (@panic strin A1 site) m2 Q s1 s2.
Proof. exact I. Qed.
Lemma bwp_oof_l {A1 A2} (m2 : BM A2) (Q : A1 -> bst -> A2 -> bst -> Prop) s1 s2 : bwp (@oof strin A1) m2 Q s1 s2.
Proof. exact I. Qed.
Lemma bwp_oof_r {A1 A2} (m1 : BM A1) (Q : A1 -> bst -> A2 -> bst -> Prop) s1 s2 : bwp m1 (@oof strin A2) Q s1 s2.
Proof. unfold swp, oof. destruct (m1 s1) as [[a1 t1]|e1 k1|n1|]; auto. Qed.
Lemma bwp_panic_r {A1 A2} site (m1 : BM A1) (Q : A1 -> bst -> A2 -> bst -> Prop) s1 s2 : bwp m1 (@panic strin A2 site) Q s1 s2.
Proof. unfold swp, panic. destruct (m1 s1) as [[a1 t1]|e1 k1|n1|]; auto. Qed.
Lemma bwp_get (Q : bst -> bst -> bst -> bst -> Prop) s1 s2 : Q s1 s1 s2 s2 -> bwp get get Q s1 s2.
Proof. auto. Qed.
Lemma bwp_gets {A1 A2} (f1 : bst -> A1) (f2 : bst -> A2) (Q : A1 -> bst -> A2 -> bst -> Prop) s1 s2 :
  Q (f1 s1) s1 (f2 s2) s2 -> bwp (gets f1) (gets f2) Q s1 s2.
Proof. auto. Qed.
Lemma bwp_put t1 t2 (Q : unit -> bst -> unit -> bst -> Prop) s1 s2 : Q tt t1 tt t2 -> bwp (put t1) (put t2) Q s1 s2.
Proof. auto. Qed.
Lemma bwp_modify f1 f2 (Q : unit -> bst -> unit -> bst -> Prop) s1 s2 :
  Q tt (f1 s1) tt (f2 s2) -> bwp (modify f1) (modify f2) Q s1 s2.
Proof. auto. Qed.

Lemma bwp_elim {A1 A2} (m1 : BM A1) (m2 : BM A2) (Q : A1 -> bst -> A2 -> bst -> Prop) s1 s2 : bwp m1 m2 Q s1 s2 ->
  match m1 s1, m2 s2 with
  | Ok (a1, t1), Ok (a2, t2) => Q a1 t1 a2 t2
  | Ok _, Err _ _ => False
  | _, _ => True
  end.
Proof.
  unfold swp. destruct (m1 s1) as [[a1 t1]|e1 k1|n1|]; destruct (m2 s2) as [[a2 t2]|e2 k2|n2|]; auto.
Qed.
Lemma bwp_intro {A1 A2} (m1 : BM A1) (m2 : BM A2) (Q : A1 -> bst -> A2 -> bst -> Prop) s1 s2 :
  match m1 s1, m2 s2 with
  | Ok (a1, t1), Ok (a2, t2) => Q a1 t1 a2 t2
  | Ok _, Err _ _ => False
  | _, _ => True
  end -> bwp m1 m2 Q s1 s2.
Proof.
  unfold swp. destruct (m1 s1) as [[a1 t1]|e1 k1|n1|]; destruct (m2 s2) as [[a2 t2]|e2 k2|n2|]; auto.
Qed.

Lemma bwp_step_l {A B1 B2} (m : BM A) (f1 : A -> BM B1) (m2 : BM B2) (Q : B1 -> bst -> B2 -> bst -> Prop) s1 s2 a t1 :
  m s1 = Ok (a, t1) -> bwp (f1 a) m2 Q t1 s2 -> bwp (bind m f1) m2 Q s1 s2.
Proof. intros Hm H. unfold swp, bind in *. rewrite Hm. exact H. Qed.
Lemma bwp_step_r {A B1 B2} (m : BM A) (m1 : BM B1) (f2 : A -> BM B2) (Q : B1 -> bst -> B2 -> bst -> Prop) s1 s2 a t2 :
  m s2 = Ok (a, t2) -> bwp m1 (f2 a) Q s1 t2 -> bwp m1 (bind m f2) Q s1 s2.
Proof. intros Hm H. unfold swp, bind in *. rewrite Hm. exact H. Qed.
Lemma bwp_eval {A1 A2} (m1 : BM A1) (m2 : BM A2) (Q : A1 -> bst -> A2 -> bst -> Prop) s1 s2 a1 t1 a2 t2 :
  m1 s1 = Ok (a1, t1) -> m2 s2 = Ok (a2, t2) -> Q a1 t1 a2 t2 -> bwp m1 m2 Q s1 s2.
Proof. intros H1 H2 HQ. unfold swp. rewrite H1, H2. exact HQ. Qed.
Lemma bwp_bind_eval {A1 A2 B1 B2} (m1 : BM A1) (m2 : BM A2) (f1 : A1 -> BM B1) (f2 : A2 -> BM B2)
  (Q : B1 -> bst -> B2 -> bst -> Prop) s1 s2 a1 t1 a2 t2 :
  m1 s1 = Ok (a1, t1) -> m2 s2 = Ok (a2, t2) -> bwp (f1 a1) (f2 a2) Q t1 t2 -> bwp (bind m1 f1) (bind m2 f2) Q s1 s2.
Proof. intros H1 H2 HQ. apply bwp_bind. eapply bwp_eval; eassumption. Qed.
Lemma bwp_ext_r {A1 A2} (m1 : BM A1) (m2 m2' : BM A2) (Q : A1 -> bst -> A2 -> bst -> Prop) s1 s2 s2' :
  m2 s2 = m2' s2' -> bwp m1 m2' Q s1 s2' -> bwp m1 m2 Q s1 s2.
Proof. intros E H. unfold swp in *. rewrite E. exact H. Qed.
Lemma bwp_ext_l {A1 A2} (m1 m1' : BM A1) (m2 : BM A2) (Q : A1 -> bst -> A2 -> bst -> Prop) s1 s1' s2 :
  m1 s1 = m1' s1' -> bwp m1' m2 Q s1' s2 -> bwp m1 m2 Q s1 s2.
Proof. intros E H. unfold swp in *. rewrite E. exact H. Qed.
(* side 1 known to fail: nothing to show *)
Lemma bwp_err_eval {A1 A2} (m1 : BM A1) (m2 : BM A2) (Q : A1 -> bst -> A2 -> bst -> Prop) s1 s2 e k :
  m1 s1 = Err e k -> bwp m1 m2 Q s1 s2.
Proof. intros E. unfold swp. rewrite E. exact I. Qed.
(* a computation behind an assertion on the lookahead counter: an assertion that fails on either side is a panic *)
Lemma bwp_asserted {A} n site (v : bst -> A) (f : bst -> bst) (m : BM A) (Q : A -> bst -> A -> bst -> Prop) s1 s2 :
  (forall s, m s = if Nat.ltb (lk s) n then Panic site else Ok (v s, f s)) -> Q (v s1) (f s1) (v s2) (f s2) -> bwp m m Q s1 s2.
Proof.
  intros Em HQ. unfold swp. rewrite !Em. destruct (Nat.ltb (lk s1) n); [exact I|].
  destruct (Nat.ltb (lk s2) n); [exact I|exact HQ].
Qed.
End Calculus.

(* 6. Closed forms of the string back-end's primitives *)
Definition bump (n : nat) (s : bst) : bst := set_in {| si_chars := rm s; si_look := Nat.max (lk s) n |} s.
Definition drop1 (s : bst) : bst := set_in {| si_chars := tl (rm s); si_look := lk s |} s.
Definition dropn (n : nat) (s : bst) : bst := set_in {| si_chars := skipn n (rm s); si_look := lk s |} s.
Definition bl1 (s : bst) : bst := set_mark (adv 1 (sc_mark s)) (drop1 s).
Definition nb1 (s : bst) : bst := set_lws false (bl1 s).
Definition nl1 (s : bst) : bst := set_lws true (set_mark (nlm (sc_mark s)) (drop1 s)).

Lemma look_ok n s : look sops n s = Ok (tt, bump n s). Proof. reflexivity. Qed.
Lemma peekn_ok k s : peekn sops k s = Ok (rn s k, s). Proof. reflexivity. Qed.
Lemma peek_ok s : SPrim.peek sops s = Ok (rn s 0, s). Proof. reflexivity. Qed.
Lemma look_ch_ok s : look_ch sops s = Ok (rn s 0, bump 1 s). Proof. reflexivity. Qed.
Lemma in_skip_ok s : in_skip sops s = Ok (tt, drop1 s). Proof. reflexivity. Qed.
Lemma in_skip_n_ok n s : in_skip_n sops n s = Ok (tt, dropn n s). Proof. reflexivity. Qed.
Lemma skip_blank_ok s : skip_blank sops s = Ok (tt, bl1 s). Proof. reflexivity. Qed.
Lemma skip_non_blank_ok s : skip_non_blank sops s = Ok (tt, nb1 s). Proof. reflexivity. Qed.
Lemma skip_nl_ok s : skip_nl sops s = Ok (tt, nl1 s). Proof. reflexivity. Qed.
Lemma adv_mark_ok n (s : bst) : adv_mark n s = Ok (tt, set_mark (adv n (sc_mark s)) s). Proof. reflexivity. Qed.

Lemma rm_bump n s : rm (bump n s) = rm s. Proof. reflexivity. Qed.
Lemma rm_drop1 s : rm (drop1 s) = tl (rm s). Proof. reflexivity. Qed.
Lemma rm_dropn n s : rm (dropn n s) = skipn n (rm s). Proof. reflexivity. Qed.
Lemma rm_bl1 s : rm (bl1 s) = tl (rm s). Proof. reflexivity. Qed.
Lemma rm_nb1 s : rm (nb1 s) = tl (rm s). Proof. reflexivity. Qed.
Lemma rm_nl1 s : rm (nl1 s) = tl (rm s). Proof. reflexivity. Qed.
Lemma lk_bump n s : lk (bump n s) = Nat.max (lk s) n. Proof. reflexivity. Qed.
Lemma ers_bump n s : ers (bump n s) = ers s. Proof. reflexivity. Qed.
Lemma ers_drop1 s : ers (drop1 s) = ers s. Proof. reflexivity. Qed.
Lemma ers_dropn n s : ers (dropn n s) = ers s. Proof. reflexivity. Qed.
Lemma rn_tl (t s : bst) i : rm t = tl (rm s) -> rn t i = rn s (S i).
Proof. exact (ScanLock.rn_tl t s i). Qed.
Lemma rn_eq (t s : bst) i : rm t = rm s -> rn t i = rn s i.
Proof. exact (ScanLock.rn_eq t s i). Qed.
Lemma rn_skipn (t s : bst) n i : rm t = skipn n (rm s) -> rn t i = rn s (n + i).
Proof. exact (ScanLock.rn_skipn t s n i). Qed.

Definition slb (s : bst) : bst :=
  if ((rn s 0 =? 13) && (rn s 1 =? 10))%N then nl1 (bl1 s) else if is_break (rn s 0) then nl1 s else s.
Definition sbk (s : bst) : bst := if ((rn s 0 =? 13) && (rn s 1 =? 10))%N then nl1 (bl1 s) else nl1 s.
Lemma skip_linebreak_eval s : skip_linebreak sops s = if Nat.ltb (lk s) 2 then Panic 103%N else Ok (tt, slb s).
Proof. exact (ScanLock.skip_linebreak_eval s). Qed.
Lemma skip_break_eval s : skip_break sops s = if is_break (rn s 0) then Ok (tt, sbk s) else Panic 110%N.
Proof. exact (ScanLock.skip_break_eval s). Qed.

Ltac rst_eq2 H := unfold rst, nl1, nb1, bl1, drop1, dropn, bump; skel_cbn; sh_fwd H; reflexivity.

(* 7. The input primitives under the relation *)
Section Rules.
Variable d : list chr.
Local Notation bwp := (swp d).

(* THE consumption lemma: both sides drop the same n characters of side 1's text, move their marks alike and set
   the flag alike; at the end of side 1 the column must be 0 and the flag set *)
Lemma SH_jump n s1 s2 (t1 t2 : bst) : SH d s1 s2 -> n <= length (rm s1) ->
  rm t1 = skipn n (rm s1) -> rm t2 = skipn n (rm s2) -> lk t2 = lk t1 ->
  sc_tokens t1 = sc_tokens s1 -> sc_tokens t2 = sc_tokens s2 -> rst t1 = rst t2 ->
  (rm t1 = [] -> m_col (sc_mark t1) = 0%N /\ sc_lws t1 = true) -> SH d t1 t2.
Proof.
  intros H Hn R1 R2 HL T1 T2 HR HE. constructor.
  - constructor; [|exact HL]. change (si_chars (sc_in t2)) with (rm t2). change (si_chars (sc_in t1)) with (rm t1).
    rewrite R2, R1, (SH_rm H). apply skipn_app_le. exact Hn.
  - rewrite T1, T2. exact (sh_tokens H).
  - exact HR.
  - rewrite R1. apply EB_skipn; [exact (sh_eb H)|exact Hn].
  - rewrite R1. apply NN_skipn. exact (sh_nn H).
  - exact HE.
Qed.

Lemma SH_bump n s1 s2 : SH d s1 s2 -> SH d (bump n s1) (bump n s2).
Proof.
  intros H. apply (SH_jump 0 s1 s2); try reflexivity; try lia; try exact H.
  - rewrite !lk_bump, (SH_lk H). reflexivity.
  - rst_eq2 H.
  - exact (sh_end H).
Qed.
Lemma tl_nonempty_of_nbz s1 s2 : SH d s1 s2 -> nbz (rn s1 0) -> tl (rm s1) <> [].
Proof.
  intros H H0 E. pose proof (SH_noLF_in H 1 (noLF_1 _ H0) (nbz_nonempty _ H0)) as HL.
  destruct (rm s1) as [|a [|b l]]; cbn in *; try lia; discriminate.
Qed.
Lemma SH_drop1 s1 s2 : SH d s1 s2 -> nbz (rn s1 0) -> SH d (drop1 s1) (drop1 s2).
Proof.
  intros H H0. pose proof (tl_nonempty_of_nbz _ _ H H0) as HT.
  apply (SH_jump 1 s1 s2); try exact H; try reflexivity.
  - pose proof (nbz_nonempty _ H0). destruct (rm s1); [contradiction|cbn; lia].
  - unfold drop1, lk. cbn. exact (SH_lk H).
  - rst_eq2 H.
  - rewrite rm_drop1. intros E. contradiction.
Qed.
Lemma SH_dropn s1 s2 n : SH d s1 s2 -> noLF n (rm s1) -> SH d (dropn n s1) (dropn n s2).
Proof.
  intros H HN. apply (SH_jump n s1 s2); try exact H; try reflexivity.
  - apply noLF_len. exact HN.
  - unfold dropn, lk. cbn. exact (SH_lk H).
  - rst_eq2 H.
  - rewrite rm_dropn. intros E. destruct n as [|n]; [apply (sh_end H); exact E|].
    exfalso. pose proof (SH_noLF_in H (S n) HN) as HL.
    assert (HE : rm s1 <> []) by (apply nbz_nonempty; apply (HN 0); lia). specialize (HL HE).
    pose proof (f_equal (@length chr) E) as EL. rewrite skipn_length in EL. cbn [length] in EL. lia.
Qed.
Lemma SH_adv n s1 s2 : SH d s1 s2 -> (rm s1 = [] -> n = 0%N) ->
  SH d (set_mark (adv n (sc_mark s1)) s1) (set_mark (adv n (sc_mark s2)) s2).
Proof.
  intros H HN. rewrite <- (SH_mark H). apply SH_set_mark; [exact H|]. intros E. cbn [adv m_col].
  rewrite (HN E). destruct (sh_end H E) as [-> _]. reflexivity.
Qed.
Lemma SH_bl1 s1 s2 : SH d s1 s2 -> nbz (rn s1 0) -> SH d (bl1 s1) (bl1 s2).
Proof.
  intros H H0. unfold bl1. apply (SH_adv 1 (drop1 s1) (drop1 s2)); [apply SH_drop1; assumption|].
  rewrite rm_drop1. intros E. exfalso. exact (tl_nonempty_of_nbz _ _ H H0 E).
Qed.
Lemma SH_nb1 s1 s2 : SH d s1 s2 -> nbz (rn s1 0) -> SH d (nb1 s1) (nb1 s2).
Proof.
  intros H H0. unfold nb1. apply SH_set_lws; [apply SH_bl1; assumption|]. right. rewrite rm_bl1.
  exact (tl_nonempty_of_nbz _ _ H H0).
Qed.
(* one character consumed as a line break (whatever it is, as long as it exists) *)
Lemma SH_nl1 s1 s2 : SH d s1 s2 -> rm s1 <> [] -> SH d (nl1 s1) (nl1 s2).
Proof.
  intros H HE. apply (SH_jump 1 s1 s2); try exact H; try reflexivity.
  - destruct (rm s1); [contradiction|cbn; lia].
  - unfold nl1, drop1, lk. cbn. exact (SH_lk H).
  - unfold nl1, drop1. rst_eq2 H.
  - intros _. split; reflexivity.
Qed.
(* one character consumed as a blank although it is a CR followed by LF: the text stays non-empty *)
Lemma SH_bl1_cr s1 s2 : SH d s1 s2 -> rn s1 1 <> 0%N -> SH d (bl1 s1) (bl1 s2).
Proof.
  intros H H1.
  assert (HL : 2 <= length (rm s1)).
  { unfold rn in H1. destruct (rm s1) as [|a [|b l]]; cbn in *; try contradiction; lia. }
  apply (SH_jump 1 s1 s2); try exact H; try reflexivity.
  - lia.
  - unfold bl1, drop1, lk. cbn. exact (SH_lk H).
  - unfold bl1, drop1. rst_eq2 H.
  - rewrite rm_bl1. intros E. destruct (rm s1) as [|a [|b l]]; cbn in *; try lia; discriminate.
Qed.
Lemma crlf_test s1 s2 : SH d s1 s2 ->
  ((rn s2 0 =? 13) && (rn s2 1 =? 10))%N = ((rn s1 0 =? 13) && (rn s1 1 =? 10))%N.
Proof. intros H. rewrite (SH_rn0 H), (SH_rn1' H), b1_eq_cr, b1_eq_lf. reflexivity. Qed.
Lemma break_nonempty (s : bst) : is_break (rn s 0) = true -> rm s <> [].
Proof. intros E R. unfold rn in E. rewrite R in E. discriminate E. Qed.
Lemma SH_slb s1 s2 : SH d s1 s2 -> SH d (slb s1) (slb s2).
Proof.
  intros H. unfold slb. rewrite (crlf_test _ _ H), (SH_rn0 H), b1_is_break.
  destruct ((rn s1 0 =? 13) && (rn s1 1 =? 10))%N eqn:E.
  - apply andb_true_iff in E. destruct E as [E0 E1]. apply N.eqb_eq in E1.
    assert (HB : SH d (bl1 s1) (bl1 s2)) by (apply SH_bl1_cr; [exact H|rewrite E1; discriminate]).
    apply SH_nl1; [exact HB|]. rewrite rm_bl1. intros R. unfold rn in E1. destruct (rm s1) as [|a [|b l]]; cbn in *; discriminate.
  - destruct (is_break (rn s1 0)) eqn:EB'; [apply SH_nl1; [exact H|apply break_nonempty; exact EB']|exact H].
Qed.
Lemma SH_sbk s1 s2 : SH d s1 s2 -> is_break (rn s1 0) = true -> SH d (sbk s1) (sbk s2).
Proof.
  intros H HB. unfold sbk. rewrite (crlf_test _ _ H).
  destruct ((rn s1 0 =? 13) && (rn s1 1 =? 10))%N eqn:E.
  - apply andb_true_iff in E. destruct E as [E0 E1]. apply N.eqb_eq in E1.
    assert (HB' : SH d (bl1 s1) (bl1 s2)) by (apply SH_bl1_cr; [exact H|rewrite E1; discriminate]).
    apply SH_nl1; [exact HB'|]. rewrite rm_bl1. intros R. unfold rn in E1. destruct (rm s1) as [|a [|b l]]; cbn in *; discriminate.
  - apply SH_nl1; [exact H|apply break_nonempty; exact HB].
Qed.

(* look / peek *)
Lemma bwp_look n (Q : unit -> bst -> unit -> bst -> Prop) s1 s2 :
  SH d s1 s2 ->
  (forall t1 t2, SH d t1 t2 -> rm t1 = rm s1 -> ers t1 = ers s1 -> ers t2 = ers s2 -> n <= lk t1 -> lk s1 <= lk t1 ->
                 Q tt t1 tt t2) ->
  bwp (look sops n) (look sops n) Q s1 s2.
Proof.
  intros H HQ. eapply bwp_eval; [apply look_ok|apply look_ok|].
  apply HQ; [apply SH_bump; exact H|reflexivity|reflexivity|reflexivity|rewrite lk_bump; lia|rewrite lk_bump; lia].
Qed.
Lemma bwp_peekn_raw k (Q : chr -> bst -> chr -> bst -> Prop) s1 s2 :
  Q (rn s1 k) s1 (rn s2 k) s2 -> bwp (peekn sops k) (peekn sops k) Q s1 s2.
Proof. intros HQ. exact HQ. Qed.
Lemma bwp_peekn k (Q : chr -> bst -> chr -> bst -> Prop) s1 s2 :
  SH d s1 s2 -> noLF k (rm s1) -> Q (rn s1 k) s1 (b1 (rn s1 k)) s2 -> bwp (peekn sops k) (peekn sops k) Q s1 s2.
Proof. intros H HL HQ. apply bwp_peekn_raw. rewrite (SH_rn H k HL). exact HQ. Qed.
(* positions 0, 1, 2: no premise *)
Lemma bwp_peekn_lt3 k (Q : chr -> bst -> chr -> bst -> Prop) s1 s2 :
  SH d s1 s2 -> k < 3 -> Q (rn s1 k) s1 (b1 (rn s1 k)) s2 -> bwp (peekn sops k) (peekn sops k) Q s1 s2.
Proof. intros H HL HQ. apply bwp_peekn_raw. rewrite (SH_rn_lt H k) by lia. exact HQ. Qed.
(* behind characters that are not breaks: the very same character *)
Lemma bwp_peekn_same k (Q : chr -> bst -> chr -> bst -> Prop) s1 s2 :
  SH d s1 s2 -> noLF k (rm s1) -> rm s1 <> [] -> (rn s1 k <> 0%N -> Q (rn s1 k) s1 (rn s1 k) s2) ->
  bwp (peekn sops k) (peekn sops k) Q s1 s2.
Proof. intros H HL HE HQ. apply bwp_peekn_raw. destruct (SH_rn_same H k HL HE) as [-> N0]. apply HQ. exact N0. Qed.
Lemma bwp_peek (Q : chr -> bst -> chr -> bst -> Prop) s1 s2 :
  SH d s1 s2 -> Q (rn s1 0) s1 (b1 (rn s1 0)) s2 -> bwp (SPrim.peek sops) (SPrim.peek sops) Q s1 s2.
Proof. intros H HQ. apply bwp_peekn; [exact H|apply noLF_0|exact HQ]. Qed.
Lemma bwp_look_ch (Q : chr -> bst -> chr -> bst -> Prop) s1 s2 :
  SH d s1 s2 ->
  (forall t1 t2, SH d t1 t2 -> rm t1 = rm s1 -> ers t1 = ers s1 -> ers t2 = ers s2 -> 1 <= lk t1 ->
                 Q (rn t1 0) t1 (b1 (rn t1 0)) t2) ->
  bwp (look_ch sops) (look_ch sops) Q s1 s2.
Proof.
  intros H HQ. unfold look_ch. apply bwp_bind. apply bwp_look; [exact H|].
  intros t1 t2 HT R1 E1 E2 L1 _. apply bwp_peek; [exact HT|]. apply HQ; assumption.
Qed.
(* a test of the next character: blind classes give the same answer; otherwise side 2 tests [b1 c] *)
Lemma bwp_next_is p (Q : bool -> bst -> bool -> bst -> Prop) s1 s2 :
  SH d s1 s2 -> bblind p -> Q (p (rn s1 0)) s1 (p (rn s1 0)) s2 -> bwp (next_is sops p) (next_is sops p) Q s1 s2.
Proof.
  intros H Hp HQ. unfold next_is. apply bwp_bind. apply bwp_peek; [exact H|]. apply bwp_ret. rewrite Hp. exact HQ.
Qed.
Lemma bwp_next_is_raw p (Q : bool -> bst -> bool -> bst -> Prop) s1 s2 :
  SH d s1 s2 -> Q (p (rn s1 0)) s1 (p (b1 (rn s1 0))) s2 -> bwp (next_is sops p) (next_is sops p) Q s1 s2.
Proof. intros H HQ. unfold next_is. apply bwp_bind. apply bwp_peek; [exact H|]. apply bwp_ret. exact HQ. Qed.
(* any class, when side 1 is not at its end *)
Lemma bwp_next_is_in p (Q : bool -> bst -> bool -> bst -> Prop) s1 s2 :
  SH d s1 s2 -> rm s1 <> [] -> Q (p (rn s1 0)) s1 (p (rn s1 0)) s2 -> bwp (next_is sops p) (next_is sops p) Q s1 s2.
Proof.
  intros H HE HQ. apply bwp_next_is_raw; [exact H|]. rewrite b1_other; [exact HQ|].
  apply (SH_rn_in H 0). destruct (rm s1); [contradiction|cbn; lia].
Qed.

(* skipping *)
Lemma bwp_in_skip (Q : unit -> bst -> unit -> bst -> Prop) s1 s2 :
  SH d s1 s2 -> nbz (rn s1 0) ->
  (forall t1 t2, SH d t1 t2 -> rm t1 = tl (rm s1) -> ers t1 = ers s1 -> ers t2 = ers s2 -> Q tt t1 tt t2) ->
  bwp (in_skip sops) (in_skip sops) Q s1 s2.
Proof.
  intros H H0 HQ. eapply bwp_eval; [apply in_skip_ok|apply in_skip_ok|].
  apply HQ; [apply SH_drop1; assumption|reflexivity|reflexivity|reflexivity].
Qed.
Lemma bwp_in_skip_n n (Q : unit -> bst -> unit -> bst -> Prop) s1 s2 :
  SH d s1 s2 -> noLF n (rm s1) ->
  (forall t1 t2, SH d t1 t2 -> rm t1 = skipn n (rm s1) -> ers t1 = ers s1 -> ers t2 = ers s2 -> Q tt t1 tt t2) ->
  bwp (in_skip_n sops n) (in_skip_n sops n) Q s1 s2.
Proof.
  intros H H0 HQ. eapply bwp_eval; [apply in_skip_n_ok|apply in_skip_n_ok|].
  apply HQ; [apply SH_dropn; assumption|reflexivity|reflexivity|reflexivity].
Qed.
(* adv_mark: at the end of side 1 only by 0 *)
Lemma bwp_adv_mark n (Q : unit -> bst -> unit -> bst -> Prop) s1 s2 :
  SH d s1 s2 -> (rm s1 = [] -> n = 0%N) ->
  (forall t1 t2, SH d t1 t2 -> rm t1 = rm s1 -> Q tt t1 tt t2) -> bwp (adv_mark n) (adv_mark n) Q s1 s2.
Proof. intros H HN HQ. unfold adv_mark. apply bwp_modify. apply HQ; [apply SH_adv; assumption|reflexivity]. Qed.
Lemma bwp_skip_blank (Q : unit -> bst -> unit -> bst -> Prop) s1 s2 :
  SH d s1 s2 -> nbz (rn s1 0) ->
  (forall t1 t2, SH d t1 t2 -> rm t1 = tl (rm s1) -> Q tt t1 tt t2) -> bwp (skip_blank sops) (skip_blank sops) Q s1 s2.
Proof.
  intros H H0 HQ. eapply bwp_eval; [apply skip_blank_ok|apply skip_blank_ok|].
  apply HQ; [apply SH_bl1; assumption|reflexivity].
Qed.
Lemma bwp_skip_non_blank (Q : unit -> bst -> unit -> bst -> Prop) s1 s2 :
  SH d s1 s2 -> nbz (rn s1 0) ->
  (forall t1 t2, SH d t1 t2 -> rm t1 = tl (rm s1) -> Q tt t1 tt t2) ->
  bwp (skip_non_blank sops) (skip_non_blank sops) Q s1 s2.
Proof.
  intros H H0 HQ. eapply bwp_eval; [apply skip_non_blank_ok|apply skip_non_blank_ok|].
  apply HQ; [apply SH_nb1; assumption|reflexivity].
Qed.
Lemma skipn_nonempty_of_noLF s1 s2 n : SH d s1 s2 -> noLF n (rm s1) -> 0 < n -> skipn n (rm s1) <> [].
Proof.
  intros H HN Hn E. pose proof (SH_noLF_in H n HN) as HL.
  assert (HE : rm s1 <> []) by (apply nbz_nonempty; apply (HN 0); lia). specialize (HL HE).
  pose proof (f_equal (@length chr) E) as EL. rewrite skipn_length in EL. cbn [length] in EL. lia.
Qed.
Lemma bwp_skip_n_non_blank n (Q : unit -> bst -> unit -> bst -> Prop) s1 s2 :
  SH d s1 s2 -> noLF n (rm s1) -> 0 < n ->
  (forall t1 t2, SH d t1 t2 -> rm t1 = skipn n (rm s1) -> Q tt t1 tt t2) ->
  bwp (skip_n_non_blank sops n) (skip_n_non_blank sops n) Q s1 s2.
Proof.
  intros H H0 Hn HQ. unfold skip_n_non_blank. apply bwp_bind. apply bwp_in_skip_n; [exact H|exact H0|].
  intros u1 u2 HU R1 _ _.
  assert (NE : rm u1 <> []) by (rewrite R1; eapply skipn_nonempty_of_noLF; eassumption).
  apply bwp_bind. apply bwp_adv_mark; [exact HU|intros E; contradiction|]. intros v1 v2 HV R2.
  apply bwp_modify. apply HQ; [apply SH_set_lws; [exact HV|right; rewrite R2; exact NE]|].
  change (rm (set_lws false v1)) with (rm v1). rewrite R2, R1. reflexivity.
Qed.

(* the line break *)
Lemma bwp_skip_nl (Q : unit -> bst -> unit -> bst -> Prop) s1 s2 :
  SH d s1 s2 -> rm s1 <> [] ->
  (forall t1 t2, SH d t1 t2 -> rm t1 = tl (rm s1) -> Q tt t1 tt t2) -> bwp (skip_nl sops) (skip_nl sops) Q s1 s2.
Proof.
  intros H HE HQ. eapply bwp_eval; [apply skip_nl_ok|apply skip_nl_ok|]. apply HQ; [apply SH_nl1; assumption|reflexivity].
Qed.
Lemma bwp_skip_linebreak (Q : unit -> bst -> unit -> bst -> Prop) s1 s2 :
  SH d s1 s2 -> (forall t1 t2, SH d t1 t2 -> rm t1 = rm (slb s1) -> Q tt t1 tt t2) ->
  bwp (skip_linebreak sops) (skip_linebreak sops) Q s1 s2.
Proof.
  intros H HQ. apply (bwp_asserted d 2 103%N (fun _ => tt) slb); [exact skip_linebreak_eval|].
  apply HQ; [apply SH_slb; exact H|reflexivity].
Qed.
Lemma bwp_skip_break (Q : unit -> bst -> unit -> bst -> Prop) s1 s2 :
  SH d s1 s2 ->
  (forall t1 t2, SH d t1 t2 -> is_break (rn s1 0) = true -> rm t1 = rm (sbk s1) -> Q tt t1 tt t2) ->
  bwp (skip_break sops) (skip_break sops) Q s1 s2.
Proof.
  intros H HQ. unfold swp. rewrite !skip_break_eval, (SH_rn0 H), b1_is_break.
  destruct (is_break (rn s1 0)) eqn:E; [|exact I]. apply HQ; [apply SH_sbk; assumption|reflexivity|reflexivity].
Qed.

(* raw_read / buf_is_empty / assert_buflen *)
(* raw_read: only inside side 1's text (at its end side 2 would consume the marker) *)
Lemma bwp_raw_read (Q : option chr -> bst -> option chr -> bst -> Prop) s1 s2 :
  SH d s1 s2 -> rm s1 <> [] ->
  (forall c t1 t2, SH d t1 t2 -> ers t1 = ers s1 -> ers t2 = ers s2 -> rm t1 <> [] ->
     match c with
     | Some x => rm s1 = x :: rm t1 /\ is_breakz x = false
     | None => rm t1 = rm s1 /\ is_breakz (rn s1 0) = true
     end -> Q c t1 c t2) ->
  bwp (raw_read sops) (raw_read sops) Q s1 s2.
Proof.
  intros H HE HQ. unfold swp, raw_read. cbn [raw_read_non_breakz str_ops].
  change (si_chars (sc_in s2)) with (rm s2). rewrite (SH_rm H). change (si_chars (sc_in s1)) with (rm s1).
  assert (HSame : SH d (set_in (sc_in s1) s1) (set_in (sc_in s2) s2)).
  { apply (SH_frame d s1 s2); auto; [exact (sh_tokens H)|rst_eq H|exact (sh_end H)]. }
  destruct (rm s1) as [|c r] eqn:E1; [contradiction|]. cbn [app].
  destruct (is_breakz c) eqn:Eb.
  - apply HQ; [exact HSame|reflexivity|reflexivity| |].
    + change (rm (set_in (sc_in s1) s1)) with (rm s1). rewrite E1. discriminate.
    + split; [exact E1|]. unfold rn. rewrite E1. exact Eb.
  - assert (H0 : nbz (rn s1 0)) by (unfold rn; rewrite E1; exact Eb).
    pose proof (SH_drop1 _ _ H H0) as HD. pose proof (tl_nonempty_of_nbz _ _ H H0) as HT. rewrite E1 in HT. cbn [tl] in HT.
    unfold drop1 in HD. rewrite (SH_rm H), E1 in HD. cbn [tl app] in HD.
    apply HQ; [exact HD|reflexivity|reflexivity|exact HT|split; [reflexivity|exact Eb]].
Qed.
Lemma bwp_buf_is_empty (Q : bool -> bst -> bool -> bst -> Prop) s1 s2 :
  SH d s1 s2 -> Q (Nat.eqb (lk s1) 0) s1 (Nat.eqb (lk s1) 0) s2 -> bwp (buf_is_empty sops) (buf_is_empty sops) Q s1 s2.
Proof.
  intros H HQ. unfold buf_is_empty. apply bwp_gets. cbn [buflen str_ops]. fold (lk s1). fold (lk s2).
  rewrite (SH_lk H). exact HQ.
Qed.
Lemma bwp_assert_buflen n site (Q : unit -> bst -> unit -> bst -> Prop) s1 s2 :
  SH d s1 s2 -> Q tt s1 tt s2 -> bwp (assert_buflen sops n site) (assert_buflen sops n site) Q s1 s2.
Proof.
  intros H HQ. apply (bwp_asserted d n site (fun _ => tt) (fun s => s)); [reflexivity|exact HQ].
Qed.

End Rules.

(* 8. The Input default methods (input.rs): tests on the next characters *)
Definition n2are (s : bst) (a b : chr) : bool := ((rn s 0 =? a) && (rn s 1 =? b))%N.
Definition n3are (s : bst) (a b c : chr) : bool := ((rn s 0 =? a) && (rn s 1 =? b) && (rn s 2 =? c))%N.
Definition docind_val (s : bst) : bool :=
  if is_blank_or_breakz (rn s 3) then (if n3are s 46%N 46%N 46%N then true else n3are s 45%N 45%N 45%N) else false.
Definition docstart_val (s : bst) : bool := if n3are s 45%N 45%N 45%N then is_blank_or_breakz (rn s 3) else false.
Definition docend_val (s : bst) : bool := if n3are s 46%N 46%N 46%N then is_blank_or_breakz (rn s 3) else false.
Definition plain_ok_val (fl : bool) (s : bst) : bool :=
  if ((rn s 0 =? 58)%N && (is_blank_or_breakz (rn s 1) || (fl && is_flow (rn s 1)))) then false
  else if fl && is_flow (rn s 0) then false else true.
Definition atend (s : bst) : bool := match rm s with [] => true | _ => false end.
Lemma atend_true s : atend s = true -> rm s = [].
Proof. unfold atend. destruct (rm s); [reflexivity|discriminate]. Qed.
Lemma atend_false s : atend s = false -> rm s <> [].
Proof. unfold atend. destruct (rm s); [discriminate|discriminate]. Qed.
Lemma atend_rn0 s : atend s = true -> rn s 0 = 0%N.
Proof. intros H. unfold rn. rewrite (atend_true _ H). reflexivity. Qed.

Lemma next_2_are_eval s a b : next_2_are sops a b s = if Nat.ltb (lk s) 2 then Panic 103%N else Ok (n2are s a b, s).
Proof. exact (ScanLock.next_2_are_eval s a b). Qed.
Lemma next_3_are_eval s a b c : next_3_are sops a b c s = if Nat.ltb (lk s) 3 then Panic 104%N else Ok (n3are s a b c, s).
Proof. exact (ScanLock.next_3_are_eval s a b c). Qed.
Lemma docind_eval s : next_is_document_indicator sops s = if Nat.ltb (lk s) 4 then Panic 105%N else Ok (docind_val s, s).
Proof. exact (ScanLock.docind_eval s). Qed.
Lemma docstart_eval s : next_is_document_start sops s = if Nat.ltb (lk s) 4 then Panic 106%N else Ok (docstart_val s, s).
Proof. exact (ScanLock.docstart_eval s). Qed.
Lemma docend_eval s : next_is_document_end sops s = if Nat.ltb (lk s) 4 then Panic 107%N else Ok (docend_val s, s).
Proof. exact (ScanLock.docend_eval s). Qed.
Lemma plain_ok_eval fl s : next_can_be_plain_scalar sops fl s = Ok (plain_ok_val fl s, s).
Proof. exact (ScanLock.plain_ok_eval fl s). Qed.

Lemma nth_pred_last {A} (l : list A) x : l <> [] -> nth (length l - 1) l x = last l x.
Proof.
  intros H. destruct (@exists_last _ l H) as (l' & z & ->). rewrite last_last, app_length. cbn [length].
  rewrite app_nth2 by lia. replace (length l' + 1 - 1 - length l') with 0 by lia. reflexivity.
Qed.
Lemma break_not_marker c : is_break c = true -> (c =? 46)%N = false /\ (c =? 45)%N = false.
Proof.
  unfold is_break. intros H. apply orb_true_iff in H. destruct H as [H|H]; apply N.eqb_eq in H; subst; split; reflexivity.
Qed.
Lemma n3are_short (s : bst) x k : k < 3 -> is_break (rn s k) = true -> (x = 46%N \/ x = 45%N) -> n3are s x x x = false.
Proof.
  intros Hk HB Hx. destruct (break_not_marker _ HB) as [E46 E45]. unfold n3are.
  assert (E : (rn s k =? x)%N = false) by (destruct Hx; subst; assumption).
  destruct k as [|[|[|k]]]; try lia; rewrite E; rewrite ?andb_false_r; reflexivity.
Qed.

Section Tests.
Variable d : list chr.
Local Notation bwp := (swp d).

Lemma n2are_brk s1 s2 a b : SH d s1 s2 -> lit a -> lit b -> n2are s2 a b = n2are s1 a b.
Proof. intros H La Lb. unfold n2are. rewrite (SH_rn0 H), (SH_rn1' H), !b1_eqb by assumption. reflexivity. Qed.
Lemma n3are_brk s1 s2 a b c : SH d s1 s2 -> lit a -> lit b -> lit c -> n3are s2 a b c = n3are s1 a b c.
Proof. intros H La Lb Lc. unfold n3are. rewrite (SH_rn0 H), (SH_rn1' H), (SH_rn2' H), !b1_eqb by assumption. reflexivity. Qed.
Lemma n3are_noLF (s : bst) a b c : lit a -> lit b -> lit c -> n3are s a b c = true -> noLF 3 (rm s).
Proof.
  intros La Lb Lc E. unfold n3are in E. apply andb_true_iff in E. destruct E as [E Ec].
  apply andb_true_iff in E. destruct E as [Ea Eb].
  apply noLF_S; [apply noLF_S; [apply noLF_1; exact (lit_eq_nbz _ a La Ea)|exact (lit_eq_nbz _ b Lb Eb)]
                |exact (lit_eq_nbz _ c Lc Ec)].
Qed.
(* the three document tests: the same answers inside the text; at the end of side 1 side 2 sees the "..." line *)
Lemma short_or_long s1 s2 : SH d s1 s2 -> rm s1 <> [] ->
  (exists k, k < 3 /\ is_break (rn s1 k) = true /\ is_break (rn s2 k) = true)
  \/ (rn s2 0 = rn s1 0 /\ rn s2 1 = rn s1 1 /\ rn s2 2 = rn s1 2 /\ rn s2 3 = rn s1 3).
Proof.
  intros H HE. destruct (Nat.lt_ge_cases 3 (length (rm s1))) as [HL|HL].
  - right. repeat split; apply (SH_rn_in H); lia.
  - left. exists (length (rm s1) - 1).
    assert (HP : 0 < length (rm s1)) by (destruct (rm s1); [contradiction|cbn; lia]).
    split; [lia|]. destruct (SH_rn_in H (length (rm s1) - 1) ltac:(lia)) as [E _]. rewrite E.
    assert (EB1 : is_break (rn s1 (length (rm s1) - 1)) = true).
    { unfold rn. rewrite nth_pred_last by exact HE. destruct (sh_eb H) as [E0|E0]; [contradiction|exact E0]. }
    split; exact EB1.
Qed.
Lemma docstart_brk s1 s2 : SH d s1 s2 -> docstart_val s2 = docstart_val s1.
Proof.
  intros H. unfold docstart_val. rewrite (n3are_brk _ _ _ _ _ H) by reflexivity.
  destruct (n3are s1 45%N 45%N 45%N) eqn:E; [|reflexivity].
  assert (L45 : lit 45%N) by reflexivity.
  pose proof (n3are_noLF s1 _ _ _ L45 L45 L45 E) as HN.
  assert (HE : rm s1 <> []) by (apply nbz_nonempty; apply (HN 0); lia).
  destruct (SH_rn_same H 3 HN HE) as [-> _]. reflexivity.
Qed.
Lemma docend_brk s1 s2 : SH d s1 s2 -> docend_val s2 = docend_val s1 || atend s1.
Proof.
  intros H. destruct (atend s1) eqn:EA.
  - rewrite orb_true_r. destruct (SH_end_rn H (atend_true _ EA)) as (E0 & E1 & E2 & E3).
    unfold docend_val, n3are. rewrite E0, E1, E2, E3. reflexivity.
  - rewrite orb_false_r. destruct (short_or_long _ _ H (atend_false _ EA)) as [(k & Hk & B1 & B2)|(E0 & E1 & E2 & E3)].
    + unfold docend_val. rewrite (n3are_short s1 46%N k), (n3are_short s2 46%N k) by auto. reflexivity.
    + unfold docend_val, n3are. rewrite E0, E1, E2, E3. reflexivity.
Qed.
Lemma docind_brk s1 s2 : SH d s1 s2 -> docind_val s2 = docind_val s1 || atend s1.
Proof.
  intros H. destruct (atend s1) eqn:EA.
  - rewrite orb_true_r. destruct (SH_end_rn H (atend_true _ EA)) as (E0 & E1 & E2 & E3).
    unfold docind_val, n3are. rewrite E0, E1, E2, E3. reflexivity.
  - rewrite orb_false_r. destruct (short_or_long _ _ H (atend_false _ EA)) as [(k & Hk & B1 & B2)|(E0 & E1 & E2 & E3)].
    + unfold docind_val. rewrite (n3are_short s1 46%N k), (n3are_short s2 46%N k), (n3are_short s1 45%N k), (n3are_short s2 45%N k) by auto.
      destruct (is_blank_or_breakz (rn s1 3)), (is_blank_or_breakz (rn s2 3)); reflexivity.
    + unfold docind_val, n3are. rewrite E0, E1, E2, E3. reflexivity.
Qed.
Lemma plain_ok_brk fl s1 s2 : SH d s1 s2 -> nbz (rn s1 0) -> plain_ok_val fl s2 = plain_ok_val fl s1.
Proof.
  intros H H0. unfold plain_ok_val. destruct (SH_rn1 H H0) as [-> _]. rewrite (SH_rn0_other H (nbz_nz _ H0)). reflexivity.
Qed.
Lemma guard1_brk p k s1 s2 : SH d s1 s2 -> lit k ->
  ((rn s2 0 =? k)%N && p (rn s2 1)) = ((rn s1 0 =? k)%N && p (rn s1 1)).
Proof.
  intros H Lk. rewrite (SH_rn0 H), b1_eqb by exact Lk. destruct (rn s1 0 =? k)%N eqn:E; [|reflexivity].
  destruct (SH_rn1 H (lit_eq_nbz _ _ Lk E)) as [-> _]. reflexivity.
Qed.

Lemma bwp_next_char_is c (Q : bool -> bst -> bool -> bst -> Prop) s1 s2 :
  SH d s1 s2 -> lit c -> Q (rn s1 0 =? c)%N s1 (rn s1 0 =? c)%N s2 -> bwp (next_char_is sops c) (next_char_is sops c) Q s1 s2.
Proof.
  intros H Lc HQ. unfold next_char_is. apply bwp_bind. apply (bwp_peek d); [exact H|]. apply bwp_ret.
  rewrite b1_eqb by exact Lc. exact HQ.
Qed.
Lemma bwp_nth_char_is n c (Q : bool -> bst -> bool -> bst -> Prop) s1 s2 :
  SH d s1 s2 -> noLF n (rm s1) -> lit c -> Q (rn s1 n =? c)%N s1 (rn s1 n =? c)%N s2 ->
  bwp (nth_char_is sops n c) (nth_char_is sops n c) Q s1 s2.
Proof.
  intros H HL Lc HQ. unfold nth_char_is. apply bwp_bind. apply (bwp_peekn d); [exact H|exact HL|]. apply bwp_ret.
  rewrite b1_eqb by exact Lc. exact HQ.
Qed.
Lemma bwp_next_2_are a b (Q : bool -> bst -> bool -> bst -> Prop) s1 s2 :
  SH d s1 s2 -> lit a -> lit b -> Q (n2are s1 a b) s1 (n2are s1 a b) s2 -> bwp (next_2_are sops a b) (next_2_are sops a b) Q s1 s2.
Proof.
  intros H La Lb HQ. apply (bwp_asserted d 2 103%N (fun s => n2are s a b) (fun s => s)); [intros s; apply next_2_are_eval|].
  rewrite (n2are_brk _ _ a b H La Lb). exact HQ.
Qed.
Lemma bwp_next_3_are a b c (Q : bool -> bst -> bool -> bst -> Prop) s1 s2 :
  SH d s1 s2 -> lit a -> lit b -> lit c -> Q (n3are s1 a b c) s1 (n3are s1 a b c) s2 ->
  bwp (next_3_are sops a b c) (next_3_are sops a b c) Q s1 s2.
Proof.
  intros H La Lb Lc HQ. apply (bwp_asserted d 3 104%N (fun s => n3are s a b c) (fun s => s)); [intros s; apply next_3_are_eval|].
  rewrite (n3are_brk _ _ a b c H La Lb Lc). exact HQ.
Qed.
Lemma bwp_next_is_document_indicator (Q : bool -> bst -> bool -> bst -> Prop) s1 s2 :
  SH d s1 s2 -> Q (docind_val s1) s1 (docind_val s1 || atend s1) s2 ->
  bwp (next_is_document_indicator sops) (next_is_document_indicator sops) Q s1 s2.
Proof. intros H HQ. apply (bwp_asserted d 4 105%N docind_val (fun s => s)); [exact docind_eval|]. rewrite (docind_brk _ _ H). exact HQ. Qed.
Lemma bwp_next_is_document_start (Q : bool -> bst -> bool -> bst -> Prop) s1 s2 :
  SH d s1 s2 -> Q (docstart_val s1) s1 (docstart_val s1) s2 ->
  bwp (next_is_document_start sops) (next_is_document_start sops) Q s1 s2.
Proof. intros H HQ. apply (bwp_asserted d 4 106%N docstart_val (fun s => s)); [exact docstart_eval|]. rewrite (docstart_brk _ _ H). exact HQ. Qed.
Lemma bwp_next_is_document_end (Q : bool -> bst -> bool -> bst -> Prop) s1 s2 :
  SH d s1 s2 -> Q (docend_val s1) s1 (docend_val s1 || atend s1) s2 ->
  bwp (next_is_document_end sops) (next_is_document_end sops) Q s1 s2.
Proof. intros H HQ. apply (bwp_asserted d 4 107%N docend_val (fun s => s)); [exact docend_eval|]. rewrite (docend_brk _ _ H). exact HQ. Qed.
Lemma bwp_next_can_be_plain_scalar fl (Q : bool -> bst -> bool -> bst -> Prop) s1 s2 :
  SH d s1 s2 -> nbz (rn s1 0) -> Q (plain_ok_val fl s1) s1 (plain_ok_val fl s1) s2 ->
  bwp (next_can_be_plain_scalar sops fl) (next_can_be_plain_scalar sops fl) Q s1 s2.
Proof.
  intros H N0 HQ. unfold swp. rewrite !plain_ok_eval. rewrite (plain_ok_brk fl _ _ H N0). exact HQ.
Qed.
End Tests.

(* 9. Contracts (proved in the ScanPrefix*.v files); TWO independent fuels everywhere *)
Definition OTS (d : list chr) (o1 o2 : option token) : Prop :=
  match o1, o2 with Some t1, Some t2 => TS d t1 t2 | None, None => True | _, _ => False end.

(* fetch_next_token behind its end-of-input test: the dispatcher *)
Section Dispatch.
Local Open Scope N_scope.
Local Open Scope mon_scope.
Definition fnt_dispatch (F : nat) : BM unit :=
  s <- get ;;
  c0 <- SPrim.peek sops ;;
  dstart <- (if m_col (sc_mark s) =? 0 then if c0 =? 37 then ret false else next_is_document_start sops else ret false) ;;
  dend <- (if (m_col (sc_mark s) =? 0) && negb (c0 =? 37) && negb dstart then next_is_document_end sops else ret false) ;;
  if (m_col (sc_mark s) =? 0) && (c0 =? 37) then fetch_directive sops F
  else if dstart then fetch_document_indicator sops TDocumentStart
  else if dend then
    fetch_document_indicator sops TDocumentEnd ;;;
    skip_ws_to_eol sops F SkipYes ;;;
    b <- next_is sops is_breakz ;;
    if b then ret tt else m <- mark ;; fail 101 m
  else
  if (Z.of_N (m_col (sc_mark s)) <? sc_indent s)%Z then fail 102 (sc_mark s) else
  c <- SPrim.peek sops ;; nc <- peekn sops 1 ;;
  let fl := 0 <? sc_flow_level s in
  let bz := is_blank_or_breakz nc in
  if c =? 91 then fetch_flow_collection_start sops F true
  else if c =? 123 then fetch_flow_collection_start sops F false
  else if c =? 93 then fetch_flow_collection_end sops F true
  else if c =? 125 then fetch_flow_collection_end sops F false
  else if c =? 44 then fetch_flow_entry sops F
  else if (c =? 45) && bz then fetch_block_entry sops F
  else if (c =? 63) && bz then fetch_key sops F
  else if (c =? 58) && bz then fetch_value sops F
  else if (c =? 58) && fl && (is_flow nc || (m_index (sc_mark s) =? sc_adjacent s)) then fetch_flow_value sops F
  else if c =? 42 then fetch_anchor sops F true
  else if c =? 38 then fetch_anchor sops F false
  else if c =? 33 then fetch_tag sops F
  else if (c =? 124) && negb fl then fetch_block_scalar sops F true
  else if (c =? 62) && negb fl then fetch_block_scalar sops F false
  else if c =? 39 then fetch_flow_scalar sops F true
  else if c =? 34 then fetch_flow_scalar sops F false
  else if (c =? 45) && negb bz then fetch_plain_scalar sops F
  else if ((c =? 58) || (c =? 63)) && negb bz && negb fl then fetch_plain_scalar sops F
  else if (c =? 37) || (c =? 64) || (c =? 96) then fail 103 (sc_mark s)
  else fetch_plain_scalar sops F.
Lemma fetch_next_token_unfold F :
  fetch_next_token sops F =
  (look sops 1 ;;;
   s <- get ;;
   if negb (sc_stream_start s) then fetch_stream_start else
   skip_to_next_token sops F ;;;
   stale_simple_keys ;;;
   m <- mark ;;
   unroll_indent (Z.of_N (m_col m)) ;;;
   look sops 4 ;;;
   z <- next_is sops is_z ;;
   if z then fetch_stream_end else fnt_dispatch F).
Proof. reflexivity. Qed.
End Dispatch.

Section Contracts.
Variable d : list chr.
Local Notation bwp := (swp d).

(* [bpost VR]: values related by [VR], states related;  [bpost_al VR]: moreover the next character of side 1 is
   not a line break;  [bpost_ne s1 VR]: moreover side 1 has not reached its end if it was not there before *)
Definition bpost {A1 A2} (VR : A1 -> A2 -> Prop) : A1 -> bst -> A2 -> bst -> Prop :=
  fun a1 t1 a2 t2 => VR a1 a2 /\ SH d t1 t2.
Definition bpost_al {A1 A2} (VR : A1 -> A2 -> Prop) : A1 -> bst -> A2 -> bst -> Prop :=
  fun a1 t1 a2 t2 => VR a1 a2 /\ SH d t1 t2 /\ is_break (rn t1 0) = false.
Definition bpost_ne (s1 : bst) {A1 A2} (VR : A1 -> A2 -> Prop) : A1 -> bst -> A2 -> bst -> Prop :=
  fun a1 t1 a2 t2 => VR a1 a2 /\ SH d t1 t2 /\ (rm s1 <> [] -> rm t1 <> []).

(* primitives family *)
Definition shf_skip_to_next_token : Prop := forall F1 F2 s1 s2, SH d s1 s2 ->
  bwp (skip_to_next_token sops F1) (skip_to_next_token sops F2) (bpost_al eq) s1 s2.
Definition shf_skip_ws_to_eol : Prop := forall F1 F2 stb s1 s2, SH d s1 s2 ->
  bwp (skip_ws_to_eol sops F1 stb) (skip_ws_to_eol sops F2 stb) (bpost_ne s1 eq) s1 s2.
Definition shf_skip_yaml_whitespace : Prop := forall F1 F2 s1 s2, SH d s1 s2 ->
  bwp (skip_yaml_whitespace sops F1) (skip_yaml_whitespace sops F2) (bpost_al eq) s1 s2.

(* scanners: entered at a character that is neither a line break nor NUL; the same token up to [TS d] *)
Definition shf_scan_directive : Prop := forall F1 F2 s1 s2, SH d s1 s2 -> nbz (rn s1 0) ->
  bwp (scan_directive sops F1) (scan_directive sops F2) (bpost (TS d)) s1 s2.
Definition shf_scan_tag : Prop := forall F1 F2 s1 s2, SH d s1 s2 -> nbz (rn s1 0) ->
  bwp (scan_tag sops F1) (scan_tag sops F2) (bpost (TS d)) s1 s2.
Definition shf_scan_anchor : Prop := forall F1 F2 alias s1 s2, SH d s1 s2 -> nbz (rn s1 0) ->
  bwp (scan_anchor sops F1 alias) (scan_anchor sops F2 alias) (bpost (TS d)) s1 s2.
Definition shf_scan_flow_scalar : Prop := forall F1 F2 single s1 s2, SH d s1 s2 -> nbz (rn s1 0) ->
  bwp (scan_flow_scalar sops F1 single) (scan_flow_scalar sops F2 single) (bpost (TS d)) s1 s2.
Definition shf_scan_plain_scalar : Prop := forall F1 F2 s1 s2, SH d s1 s2 -> nbz (rn s1 0) ->
  bwp (scan_plain_scalar sops F1) (scan_plain_scalar sops F2) (bpost (TS d)) s1 s2.
Definition shf_scan_block_scalar : Prop := forall F1 F2 literal s1 s2, SH d s1 s2 -> nbz (rn s1 0) ->
  bwp (scan_block_scalar sops F1 literal) (scan_block_scalar sops F2 literal) (bpost (TS d)) s1 s2.

(* skeleton *)
Definition shf_fetch_stream_start : Prop := forall s1 s2, SH d s1 s2 ->
  bwp fetch_stream_start fetch_stream_start (bpost eq) s1 s2.
Definition shf_fetch_directive : Prop := forall F1 F2 s1 s2, SH d s1 s2 -> nbz (rn s1 0) ->
  bwp (fetch_directive sops F1) (fetch_directive sops F2) (bpost eq) s1 s2.
Definition shf_fetch_tag : Prop := forall F1 F2 s1 s2, SH d s1 s2 -> nbz (rn s1 0) ->
  bwp (fetch_tag sops F1) (fetch_tag sops F2) (bpost eq) s1 s2.
Definition shf_fetch_anchor : Prop := forall F1 F2 alias s1 s2, SH d s1 s2 -> nbz (rn s1 0) ->
  bwp (fetch_anchor sops F1 alias) (fetch_anchor sops F2 alias) (bpost eq) s1 s2.
Definition shf_fetch_flow_collection_start : Prop := forall F1 F2 seq s1 s2, SH d s1 s2 -> nbz (rn s1 0) ->
  bwp (fetch_flow_collection_start sops F1 seq) (fetch_flow_collection_start sops F2 seq) (bpost eq) s1 s2.
Definition shf_fetch_flow_collection_end : Prop := forall F1 F2 seq s1 s2, SH d s1 s2 -> nbz (rn s1 0) ->
  bwp (fetch_flow_collection_end sops F1 seq) (fetch_flow_collection_end sops F2 seq) (bpost eq) s1 s2.
Definition shf_fetch_flow_entry : Prop := forall F1 F2 s1 s2, SH d s1 s2 -> nbz (rn s1 0) ->
  bwp (fetch_flow_entry sops F1) (fetch_flow_entry sops F2) (bpost eq) s1 s2.
Definition shf_fetch_block_entry : Prop := forall F1 F2 s1 s2, SH d s1 s2 -> nbz (rn s1 0) ->
  bwp (fetch_block_entry sops F1) (fetch_block_entry sops F2) (bpost eq) s1 s2.
Definition shf_fetch_document_indicator : Prop := forall t s1 s2, SH d s1 s2 -> noLF 3 (rm s1) ->
  bwp (fetch_document_indicator sops t) (fetch_document_indicator sops t) (bpost eq) s1 s2.
Definition shf_fetch_block_scalar : Prop := forall F1 F2 literal s1 s2, SH d s1 s2 -> nbz (rn s1 0) ->
  bwp (fetch_block_scalar sops F1 literal) (fetch_block_scalar sops F2 literal) (bpost eq) s1 s2.
Definition shf_fetch_flow_scalar : Prop := forall F1 F2 single s1 s2, SH d s1 s2 -> nbz (rn s1 0) ->
  bwp (fetch_flow_scalar sops F1 single) (fetch_flow_scalar sops F2 single) (bpost eq) s1 s2.
Definition shf_fetch_plain_scalar : Prop := forall F1 F2 s1 s2, SH d s1 s2 -> nbz (rn s1 0) ->
  bwp (fetch_plain_scalar sops F1) (fetch_plain_scalar sops F2) (bpost eq) s1 s2.
Definition shf_fetch_key : Prop := forall F1 F2 s1 s2, SH d s1 s2 -> nbz (rn s1 0) ->
  bwp (fetch_key sops F1) (fetch_key sops F2) (bpost eq) s1 s2.
Definition shf_fetch_value : Prop := forall F1 F2 s1 s2, SH d s1 s2 -> nbz (rn s1 0) ->
  bwp (fetch_value sops F1) (fetch_value sops F2) (bpost eq) s1 s2.
Definition shf_fetch_flow_value : Prop := forall F1 F2 s1 s2, SH d s1 s2 -> nbz (rn s1 0) ->
  (0 <? sc_flow_level s1)%N = true ->
  bwp (fetch_flow_value sops F1) (fetch_flow_value sops F2) (bpost eq) s1 s2.
(* the dispatcher, entered at a character that is neither a line break nor NUL (side 1 has just seen that it is
   not at the end of its input) *)
Definition shf_dispatch : Prop := forall F1 F2 s1 s2, SH d s1 s2 -> nbz (rn s1 0) ->
  bwp (fnt_dispatch F1) (fnt_dispatch F2) (bpost eq) s1 s2.
End Contracts.

(* non-emptiness of side 1's text: the way to get rid of [b1] under classes that are not blind *)
Lemma SH_nz d (s1 s2 : bst) : SH d s1 s2 -> rm s1 <> [] -> rn s1 0 <> 0%N.
Proof. intros H HE. apply (SH_rn_in H 0). destruct (rm s1); [contradiction|cbn; lia]. Qed.
Lemma SH_b1_in d (s1 s2 : bst) : SH d s1 s2 -> rm s1 <> [] -> b1 (rn s1 0) = rn s1 0.
Proof. intros H HE. apply b1_other. eapply SH_nz; eassumption. Qed.
Lemma SH_ne_tl d (s1 s2 t : bst) : SH d s1 s2 -> nbz (rn s1 0) -> rm t = tl (rm s1) -> rm t <> [].
Proof. intros H H0 ->. eapply tl_nonempty_of_nbz; eassumption. Qed.
Lemma SH_ne_eq (s t : bst) : rm s <> [] -> rm t = rm s -> rm t <> [].
Proof. intros H ->. exact H. Qed.
Lemma nbz_ne (s : bst) : nbz (rn s 0) -> rm s <> [].
Proof. apply nbz_nonempty. Qed.
(* side 1 not at its end and not at a break: [nbz] *)
Lemma SH_nbz_of d (s1 s2 : bst) : SH d s1 s2 -> rm s1 <> [] -> is_break (rn s1 0) = false -> nbz (rn s1 0).
Proof.
  intros H HE HB. unfold nbz, is_breakz. rewrite HB. cbn [orb]. unfold is_z. apply N.eqb_neq. eapply SH_nz; eassumption.
Qed.
