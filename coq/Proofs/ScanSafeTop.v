(* Assembly of the joint proof: over the buffered input of ANY capacity >= 8 the scanner model never panics
   (no lookahead-contract violation 103-107/200-203, no skeleton panic 110-118), for every input, every loop fuel F
   and every iteration fuel; hence the whole pipeline scanner + parser (run_buf) never ends in PPanic. *)
From Coq Require Import List NArith ZArith Bool Arith Lia.
Import ListNotations.
Require Import Parser SBase SPrim SDir SScalar SFetch SBuf Pipe ScanWP.
Require Import ScanSafePrim ScanSafeDir ScanSafeFlow ScanSafePlain ScanSafeBlock ScanSafeFetch.
Local Open Scope nat_scope.

(* from any state satisfying the strengthened skeleton invariant *)
Theorem scanner_never_panics_from : forall cap, 8 <= cap -> forall F fuel s acc n,
  ScanSafeFetch.SInv' s -> snd (scan_all (buf_ops cap) F fuel s acc) <> SPanic n.
Proof.
  intros cap Hc.
  pose proof (safe_skip_ws_to_eol cap Hc) as Hws.
  exact (ScanSafeFetch.scan_all_never_panics cap Hc
           (safe_skip_to_next_token cap Hc) Hws (safe_skip_yaml_whitespace cap Hc)
           (safe_scan_directive cap Hc Hws) (safe_scan_tag cap Hc Hws) (safe_scan_anchor cap Hc Hws)
           (safe_scan_flow_scalar cap Hc Hws) (safe_scan_plain_scalar cap Hc Hws)
           (safe_scan_block_scalar cap Hc Hws)).
Qed.

(* the initial state is one *)
Theorem scanner_never_panics_buffered : forall cap, 8 <= cap -> forall F fuel input n,
  snd (scan_all (buf_ops cap) F fuel (init_sc {| b_buf := []; b_rest := input |}) []) <> SPanic n.
Proof. intros cap Hc F fuel input n. apply (scanner_never_panics_from cap Hc). exact (ScanSafeSkel.sinv'_init _). Qed.

Theorem pipeline_never_panics_buffered : forall cap, 8 <= cap -> forall input n,
  snd (run_buf cap input) <> PPanic n.
Proof.
  intros cap Hc.
  pose proof (safe_skip_ws_to_eol cap Hc) as Hws.
  exact (ScanSafeFetch.run_buf_never_panics cap Hc
           (safe_skip_to_next_token cap Hc) Hws (safe_skip_yaml_whitespace cap Hc)
           (safe_scan_directive cap Hc Hws) (safe_scan_tag cap Hc Hws) (safe_scan_anchor cap Hc Hws)
           (safe_scan_flow_scalar cap Hc Hws) (safe_scan_plain_scalar cap Hc Hws)
           (safe_scan_block_scalar cap Hc Hws)).
Qed.

Print Assumptions scanner_never_panics_buffered.
Print Assumptions scanner_never_panics_from.
Print Assumptions pipeline_never_panics_buffered.
