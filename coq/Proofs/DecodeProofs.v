(* C18 — proofs about Model/Decode.v:
   1. detection: the chosen encoding is the right one for input with a byte-order mark and for the
      encodings of texts that start with an ASCII character;
   2. termination and panic-freedom of decode_loop for ALL inputs and traps, for every decoder that meets
      an explicit contract, with fuel 2 * input.len() + 2;
   3. without the lower bound of the growth step (RESERVE_MIN = 0, the unrepaired `input.len() / 10`) the
      loop spins forever on an 8-byte input with a decoder that meets the same contract;
   4. the contract is satisfiable: the toy UTF-16LE decoder of Model/Decode.v meets it. *)
From Coq Require Import List NArith Bool Lia Arith.
Import ListNotations.
Require Import Consts Decode EncodingSpec.
Open Scope N_scope.
Arguments N.add : simpl never.
Arguments N.sub : simpl never.
Arguments N.mul : simpl never.
Arguments N.div : simpl never.
Arguments N.modulo : simpl never.
Arguments N.eqb : simpl never.
Arguments N.ltb : simpl never.
Arguments N.leb : simpl never.
Arguments N.max : simpl never.

(* 1. Detection *)
Lemma detect_bom : forall e text, choose_encoding (bom e ++ encode e text) = (e, nlen (bom e)).
Proof. intros [] text; reflexivity. Qed.

(* for any bytes after the mark, not only well-formed ones *)
Lemma detect_bom_any : forall e rest, choose_encoding (bom e ++ rest) = (e, nlen (bom e)).
Proof. intros [] rest; reflexivity. Qed.

Lemma eqb_false_lt : forall a b, a < b -> (a =? b) = false.
Proof. intros a b H; apply N.eqb_neq; lia. Qed.

Lemma for_bom_ascii_first : forall c rest, c < 128 -> for_bom (c :: rest) = None.
Proof.
  intros c rest Hc. unfold for_bom. destruct rest as [|b1 t]; [reflexivity|].
  rewrite (eqb_false_lt c 239), (eqb_false_lt c 255), (eqb_false_lt c 254) by lia. reflexivity.
Qed.

Lemma utf16_units_ascii : forall c, c < 128 -> utf16_units c = [c].
Proof. intros c Hc. unfold utf16_units. destruct (N.ltb_spec c 65536); [reflexivity|lia]. Qed.

Lemma detect_utf16_ascii : forall be text, ascii_first text = true ->
    choose_encoding (flat_map (utf16_char be) text) = (if be then Utf16BE else Utf16LE, 0).
Proof.
  intros be [|c rest] H; [discriminate|]. cbn [ascii_first] in H.
  apply andb_true_iff in H as [H0 H1]. apply N.ltb_lt in H0, H1.
  cbn [flat_map]. unfold utf16_char at 1. rewrite (utf16_units_ascii c H1).
  cbn [flat_map]. unfold unit_bytes. rewrite (N.mod_small c 256), (N.div_small c 256) by lia.
  unfold choose_encoding.
  destruct be; cbn [app]; rewrite for_bom_ascii_first by lia; cbn [detect_utf16_endianness];
    rewrite ?(proj2 (N.eqb_neq 0 c)), ?(proj2 (N.eqb_neq c 0)) by lia; reflexivity.
Qed.

Lemma add_pos_nonzero : forall a b, 0 < a -> a + b <> 0.
Proof. intros a b H. lia. Qed.

(* the first byte of the UTF-8 form of a character other than NUL is not zero *)
Lemma utf8_char_head : forall d, d <> 0 -> exists h t, utf8_char d = h :: t /\ h <> 0.
Proof.
  intros d Hd. unfold utf8_char.
  destruct (N.ltb_spec d 128); [exists d, []; split; [reflexivity|assumption]|].
  destruct (N.ltb_spec d 2048); [eexists _, _; split; [reflexivity|apply add_pos_nonzero; lia]|].
  destruct (N.ltb_spec d 65536); eexists _, _; (split; [reflexivity|apply add_pos_nonzero; lia]).
Qed.

Lemma detect_utf8_ascii : forall text, ascii_start text = true -> choose_encoding (encode Utf8 text) = (Utf8, 0).
Proof.
  intros [|c rest] H; [discriminate|]. cbn [ascii_start] in H.
  apply andb_true_iff in H as [H H2]. apply andb_true_iff in H as [H0 H1]. apply N.ltb_lt in H0, H1.
  cbn [encode flat_map]. unfold utf8_char at 1. rewrite (proj2 (N.ltb_lt c 128) H1). cbn [app].
  unfold choose_encoding. rewrite for_bom_ascii_first by lia.
  destruct rest as [|d r2]; [reflexivity|].
  apply negb_true_iff, N.eqb_neq in H2.
  destruct (utf8_char_head d H2) as (h & t & Eh & Hh).
  cbn [flat_map]. rewrite Eh. cbn [app detect_utf16_endianness].
  destruct (c =? h); cbn [negb]; [reflexivity|].
  rewrite (proj2 (N.eqb_neq c 0)) by lia. rewrite (proj2 (N.eqb_neq h 0)) by lia. reflexivity.
Qed.

Definition detectable (e : encoding) (text : list N) : bool :=
  match e with Utf8 => ascii_start text | _ => ascii_first text end.

Lemma detect_no_bom : forall e text, detectable e text = true -> choose_encoding (encode e text) = (e, 0).
Proof.
  intros [] text H; [apply detect_utf8_ascii|apply (detect_utf16_ascii false)|apply (detect_utf16_ascii true)]; exact H.
Qed.

(* 2. The decoder contract, termination and panic-freedom *)
Definition step_read (r : step_result) : N :=
  match r with InputEmpty _ => 0 | OutputFull rd _ => rd | Malformed _ _ rd _ => rd end.
Definition step_written (r : step_result) : N :=
  match r with InputEmpty w => w | OutputFull _ w => w | Malformed _ _ _ w => w end.

(* What the loop needs from encoding_rs's Decoder::decode_to_string_without_replacement.
   [pending d] = number of input bytes the decoder has consumed but not yet turned into output or reported
   (a UTF-16 lead byte / lead surrogate, the seen part of a UTF-8 sequence): such bytes make it possible for a
   call to read nothing and still make progress, and for a malformed sequence to start before the current
   slice.
     H0  a call reads at most what it is given and writes at most the spare capacity;
     H1  OutputFull: no pending byte is invented, and if the call was given at least K spare bytes it
         consumed or settled at least one byte  (i.e. "output full" is only an excuse below K);
     H2  Malformed: at least one byte was consumed or settled;
     H3  Malformed(len, after): the reported context lies within the bytes read so far
         (len + after <= pending before + read in this call) and fits the u8 arithmetic of the Call branch. *)
Record decoder_contract {dstate : Type} (dstep : dstate -> list N -> N -> dstate * step_result)
       (pending : dstate -> N) (K : N) : Prop := {
  dc_bounds : forall d rem spare d' r, dstep d rem spare = (d', r) ->
      step_read r <= nlen rem /\ step_written r <= spare;
  dc_full : forall d rem spare d' rd w, dstep d rem spare = (d', OutputFull rd w) ->
      pending d' <= pending d + rd /\ (K <= spare -> pending d' < pending d + rd);
  dc_malformed_progress : forall d rem spare d' ml af rd w, dstep d rem spare = (d', Malformed ml af rd w) ->
      pending d' < pending d + rd;
  dc_malformed_context : forall d rem spare d' ml af rd w, dstep d rem spare = (d', Malformed ml af rd w) ->
      ml + af <= pending d + rd /\ ml + af <= 255
}.

(* what a finished loop may look like: no panic, fuel left, and a reported malformed sequence inside the input *)
Definition outcome_ok (n : N) (o : outcome) : bool :=
  match o with
  | Done _ _ => true
  | DecodeError idx ml => idx + ml <=? n
  | CallbackError => true
  | Panicked _ | OutOfFuel => false
  end.

Lemma outcome_ok_terminated : forall n o, outcome_ok n o = true -> terminated o = true.
Proof. intros n []; cbn; congruence. Qed.

Lemma nlen_skipn : forall (l : list N) k, nlen (skipn (N.to_nat k) l) = nlen l - k.
Proof.
  intros l k. unfold nlen. rewrite skipn_length, Nat2N.inj_sub, N2Nat.id. reflexivity.
Qed.

Lemma reserve_spare : forall len cap add, add <= reserve len cap add - len.
Proof.
  intros len cap add. unfold reserve. destruct (N.leb_spec add (cap - len)); [assumption|].
  pose proof (N.le_max_l (N.max (cap * 2) (len + add)) 8).
  pose proof (N.le_max_r (cap * 2) (len + add)). lia.
Qed.

Lemma reserve_grows : forall len cap add, cap <= reserve len cap add.
Proof.
  intros len cap add. unfold reserve. destruct (N.leb_spec add (cap - len)); [lia|].
  pose proof (N.le_max_l (N.max (cap * 2) (len + add)) 8).
  pose proof (N.le_max_l (cap * 2) (len + add)). lia.
Qed.

Lemma growth_step_min : forall div min n, min <= growth_step div min n.
Proof. intros div min n. apply N.le_max_r. Qed.

Lemma malformed_index_ok : forall u8 n total ml af,
    ml + af <= total -> total - af <= n -> ml + af <= 255 ->
    malformed_index u8 n total ml af = inr (total - (ml + af)).
Proof.
  intros u8 n total ml af Hc Hn Hu. unfold malformed_index.
  rewrite (proj2 (N.ltb_ge 255 (ml + af)) Hu), andb_false_r.
  destruct (N.ltb_spec total (ml + af)); [lia|].
  destruct (N.ltb_spec n (total - (ml + af) + ml)); [lia|reflexivity].
Qed.

Section Termination.
  Variable dstate : Type.
  Variable dstep : dstate -> list N -> N -> dstate * step_result.
  Variable pending : dstate -> N.
  Variables K div min : N.
  Hypothesis contract : decoder_contract dstep pending K.
  (* the growth step covers the decoder's need *)
  Hypothesis min_covers : K <= min.

  Variable t : trap.
  Variable input : list N.
  Let n := nlen input.

  (* bytes not yet settled *)
  Definition measure (c : config dstate) : N := (n - c_total c) + pending (c_dec c).
  (* iterations that suffice from [c] *)
  Definition need (c : config dstate) : N :=
    2 * measure c + (if c_cap c - c_len c <? K then 2 else 1).
  Definition inv (c : config dstate) : Prop :=
    c_total c <= n /\ pending (c_dec c) <= c_total c.

  Lemma loop_step_progress : forall c, inv c ->
      match loop_step dstate dstep div min t input c with
      | inr o => outcome_ok n o = true
      | inl c' => inv c' /\ need c' + 1 <= need c
      end.
  Proof.
    intros [total d len cap] [Ht Hp]. cbn [c_total c_dec c_len c_cap] in Ht, Hp.
    unfold loop_step. cbn [c_total c_dec c_len c_cap]. fold n.
    destruct (N.ltb_spec n total) as [Hlt|_]; [lia|].
    destruct (dstep d (skipn (N.to_nat total) input) (cap - len)) as [d' r] eqn:E.
    pose proof (dc_bounds _ _ _ contract _ _ _ _ _ E) as [Hrd Hw].
    rewrite nlen_skipn in Hrd. fold n in Hrd.
    destruct r as [w|rd w|ml af rd w]; cbn [step_read step_written] in Hrd, Hw.
    - (* InputEmpty *)
      destruct (N.ltb_spec (cap - len) w); [lia|]. reflexivity.
    - (* OutputFull *)
      destruct (N.ltb_spec (cap - len) w); [lia|].
      pose proof (dc_full _ _ _ contract _ _ _ _ _ _ E) as [Hweak Hstrong].
      pose proof (reserve_spare (len + w) cap (growth_step div min n)) as Hsp.
      pose proof (growth_step_min div min n) as Hg.
      split; [split; cbn [c_total c_dec]; lia|].
      unfold need, measure. cbn [c_total c_dec c_len c_cap].
      destruct (N.ltb_spec (reserve (len + w) cap (growth_step div min n) - (len + w)) K); [lia|].
      destruct (N.ltb_spec (cap - len) K); [lia|].
      specialize (Hstrong ltac:(assumption)). lia.
    - (* Malformed *)
      destruct (N.ltb_spec (cap - len) w); [lia|].
      pose proof (dc_malformed_progress _ _ _ contract _ _ _ _ _ _ _ _ E) as Hprog.
      pose proof (dc_malformed_context _ _ _ contract _ _ _ _ _ _ _ _ E) as [Hctx Hu8].
      assert (Hneed : forall l2 c2,
                 inv (Config (total + rd) d' l2 c2) /\
                 need (Config (total + rd) d' l2 c2) + 1 <= need (Config total d len cap)).
      { intros l2 c2. split; [split; cbn [c_total c_dec]; lia|].
        unfold need, measure. cbn [c_total c_dec c_len c_cap].
        destruct (c2 - l2 <? K); destruct (cap - len <? K); lia. }
      destruct t as [| | |cb].
      + apply Hneed.
      + rewrite malformed_index_ok by lia. cbn [outcome_ok]. apply N.leb_le. lia.
      + apply Hneed.
      + rewrite malformed_index_ok by lia.
        destruct (cb ml af (skipn _ input) (len + w, cap)) as [l2 c2|[|]].
        * apply Hneed.
        * cbn [outcome_ok]. apply N.leb_le. lia.
        * reflexivity.
  Qed.

  Lemma loop_go_terminates : forall fuel c, inv c -> need c <= N.of_nat fuel ->
      outcome_ok n (loop_go dstate dstep div min fuel t input c) = true.
  Proof.
    induction fuel as [|f IH]; intros c Hinv Hneed.
    - exfalso. unfold need in Hneed. cbn in Hneed. destruct (c_cap c - c_len c <? K); lia.
    - cbn [loop_go]. pose proof (loop_step_progress c Hinv) as Hs.
      destruct (loop_step dstate dstep div min t input c) as [c'|o]; [|exact Hs].
      destruct Hs as [Hinv' Hdec]. apply IH; [exact Hinv'|]. lia.
  Qed.

  Lemma decode_loop_terminates : forall d0 fuel, pending d0 = 0 -> (decode_fuel input <= fuel)%nat ->
      outcome_ok n (decode_loop dstate dstep div min fuel d0 t input) = true.
  Proof.
    intros d0 fuel Hd0 Hfuel. unfold decode_loop. apply loop_go_terminates.
    - unfold inv, initial_config. cbn [c_total c_dec]. lia.
    - unfold need, measure, initial_config. cbn [c_total c_dec c_len c_cap]. rewrite Hd0.
      unfold decode_fuel in Hfuel. unfold n.
      assert (2 * nlen input + 2 <= N.of_nat fuel) by lia.
      destruct (reserve 0 0 (nlen input) - 0 <? K); lia.
  Qed.
End Termination.

(* the obligation that ties the theorem to the constants found in encoding.rs:
   it fails as soon as the translator reads a growth step without (or with too small) a lower bound *)
Lemma reserve_min_covers_decoder : DECODER_K <= RESERVE_MIN.
Proof. vm_compute. discriminate. Qed.

Lemma decode_loop_impl_terminates :
  forall (dstate : Type) (dstep : dstate -> list N -> N -> dstate * step_result) (pending : dstate -> N) (d0 : dstate),
    decoder_contract dstep pending DECODER_K -> pending d0 = 0 ->
    forall (t : trap) (input : list N) (fuel : nat), (decode_fuel input <= fuel)%nat ->
      outcome_ok (nlen input) (decode_loop_impl dstep fuel d0 t input) = true.
Proof.
  intros dstate dstep pending d0 Hc Hd0 t input fuel Hf. unfold decode_loop_impl.
  exact (decode_loop_terminates dstate dstep pending DECODER_K RESERVE_DIV RESERVE_MIN Hc
           reserve_min_covers_decoder t input d0 fuel Hd0 Hf).
Qed.

(* 4. The contract is satisfiable: the toy UTF-16LE decoder *)
Lemma nlen_cons : forall (b : N) l, nlen (b :: l) = nlen l + 1.
Proof. intros b l. unfold nlen. cbn [length]. lia. Qed.

Lemma utf8_len_bmp_range : forall u, 1 <= utf8_len_bmp u <= 3.
Proof. intros u. unfold utf8_len_bmp. destruct (u <? 128); [lia|]. destruct (u <? 2048); lia. Qed.

Definition toy_post (rem : list N) (lead : option N) (spare rd w : N) (d' : option N) (r : step_result) : Prop :=
  match r with
  | InputEmpty w' => w <= w' /\ w' <= w + spare
  | OutputFull rd' w' =>
      rd <= rd' /\ rd' <= rd + nlen rem /\ w <= w' /\ w' <= w + spare /\
      toy_pending d' + rd <= toy_pending lead + rd' /\
      (4 <= spare -> toy_pending d' + rd < toy_pending lead + rd')
  | Malformed ml af rd' w' =>
      rd <= rd' /\ rd' <= rd + nlen rem /\ w <= w' /\ w' <= w + spare /\
      toy_pending d' + rd < toy_pending lead + rd' /\
      ml + af + rd <= toy_pending lead + rd' /\ ml + af <= 255
  end.

Lemma toy_go_post : forall rem lead spare rd w d' r,
    toy_go rem lead spare rd w = (d', r) -> toy_post rem lead spare rd w d' r.
Proof.
  induction rem as [|b tl IH]; intros lead spare rd w d' r E; cbn [toy_go] in E.
  - destruct lead as [l|].
    + destruct (N.ltb_spec spare 3); inversion E; subst; unfold toy_post; cbn [toy_pending nlen length]; lia.
    + inversion E; subst. unfold toy_post. lia.
  - destruct (N.ltb_spec spare 4) as [Hs|Hs].
    + inversion E; subst. unfold toy_post. rewrite nlen_cons. lia.
    + destruct lead as [l|].
      * destruct (is_surrogate_unit (l + 256 * b)).
        -- inversion E; subst. unfold toy_post. rewrite nlen_cons. cbn [toy_pending]. lia.
        -- pose proof (utf8_len_bmp_range (l + 256 * b)) as Hk.
           apply IH in E. unfold toy_post in *. rewrite nlen_cons.
           destruct r as [w'|rd' w'|ml af rd' w']; cbn [toy_pending] in *; lia.
      * apply IH in E. unfold toy_post in *. rewrite nlen_cons.
        destruct r as [w'|rd' w'|ml af rd' w']; cbn [toy_pending] in *; lia.
Qed.

Lemma toy_contract : decoder_contract toy_step toy_pending DECODER_K.
Proof.
  unfold DECODER_K.
  split; unfold toy_step; intros d rem spare d'.
  - intros r E. apply toy_go_post in E. unfold toy_post in E.
    destruct r; cbn [step_read step_written]; lia.
  - intros rd w E. apply toy_go_post in E. unfold toy_post in E. lia.
  - intros ml af rd w E. apply toy_go_post in E. unfold toy_post in E. lia.
  - intros ml af rd w E. apply toy_go_post in E. unfold toy_post in E. lia.
Qed.

Lemma toy_terminates : forall t input fuel, (decode_fuel input <= fuel)%nat ->
    outcome_ok (nlen input) (decode_loop_impl toy_step fuel None t input) = true.
Proof.
  intros t input fuel Hf.
  exact (decode_loop_impl_terminates (option N) toy_step toy_pending None toy_contract eq_refl t input fuel Hf).
Qed.

(* 3. Why the lower bound of the growth step matters *)
Lemma stuck_forever : forall (dstate : Type) dstep div min t input (c : config dstate),
    loop_step dstate dstep div min t input c = inl c ->
    forall fuel, loop_go dstate dstep div min fuel t input c = OutOfFuel.
Proof.
  intros dstate dstep div min t input c H. induction fuel as [|f IH]; [reflexivity|].
  cbn [loop_go]. rewrite H. exact IH.
Qed.

(* "a中文a" in UTF-16LE without BOM: 8 bytes that decode to 8 bytes of UTF-8, 7 of which fit before the
   decoder asks for more room; 8 / 10 = 0 additional bytes are reserved, for ever. *)
Definition spin_witness : list N := [97; 0; 45; 78; 135; 101; 97; 0].

Lemma spin_first_step : forall t,
    loop_step (option N) toy_step 10 0 t spin_witness (initial_config (option N) None spin_witness)
    = inl (Config 6 None 7 8).
Proof. intros t. vm_compute. reflexivity. Qed.

Lemma spin_fixpoint : forall t,
    loop_step (option N) toy_step 10 0 t spin_witness (Config 6 None 7 8) = inl (Config 6 None 7 8).
Proof. intros t. vm_compute. reflexivity. Qed.

Lemma decode_loop_without_min_spins : forall t fuel,
    decode_loop (option N) toy_step 10 0 fuel None t spin_witness = OutOfFuel.
Proof.
  intros t [|f]; [reflexivity|]. unfold decode_loop. cbn [loop_go].
  rewrite spin_first_step. apply stuck_forever. apply spin_fixpoint.
Qed.

(* Termination of the loop with growth step `input.len() / 10` (no lower bound) is refuted: there is a
   decoder meeting the contract and an input on which no amount of fuel suffices, under every trap. *)
Lemma termination_without_min_refuted :
  exists (dstate : Type) (dstep : dstate -> list N -> N -> dstate * step_result) (pending : dstate -> N)
         (d0 : dstate) (input : list N),
    decoder_contract dstep pending DECODER_K /\ pending d0 = 0 /\
    forall t fuel, decode_loop dstate dstep 10 0 fuel d0 t input = OutOfFuel.
Proof.
  exists (option N), toy_step, toy_pending, None, spin_witness.
  split; [exact toy_contract|]. split; [reflexivity|]. exact decode_loop_without_min_spins.
Qed.
