(* C10, value level: the six character-level contracts, in their non-strict reading (ScanPairDir/Flow/Plain/Block.v
   through the [rel_*_pair] lemmas of ScanRel.v), plugged into the skeleton and top-level theorems of ScanRelTop.v.
   Apart from the instantiation, only the use of the string run's totality in [pipeline_backends_agree_total]. *)
From Coq Require Import List NArith Bool.
Import ListNotations.
Require Import Parser SBase SFetch Pipe SBuf ScanRel ScanRelTop.
Require ScanPairDir ScanPairFlow ScanPairPlain ScanPairBlock ScanFuelAll.
Local Open Scope nat_scope.

Section Contracts.
Variable cap : nat.
Hypothesis H : 8 <= cap.
Lemma scan_directive_ok : rel_scan_directive cap.
Proof using H. apply (rel_scan_directive_pair cap 0). exact (ScanPairDir.scan_directive_ok cap H false 0). Qed.
Lemma scan_tag_ok : rel_scan_tag cap.
Proof using H. apply (rel_scan_tag_pair cap 0). exact (ScanPairDir.scan_tag_ok cap H false 0). Qed.
Lemma scan_anchor_ok : rel_scan_anchor cap.
Proof using H. apply (rel_scan_anchor_pair cap 0). exact (ScanPairDir.scan_anchor_ok cap H false 0). Qed.
Lemma scan_flow_scalar_ok : rel_scan_flow_scalar cap.
Proof using H. apply (rel_scan_flow_scalar_pair cap 0). exact (ScanPairFlow.scan_flow_scalar_ok cap H false 0). Qed.
Lemma scan_plain_scalar_ok : rel_scan_plain_scalar cap.
Proof using H. apply (rel_scan_plain_scalar_pair cap 0). exact (ScanPairPlain.scan_plain_scalar_ok cap H false 0). Qed.
Lemma scan_block_scalar_ok : rel_scan_block_scalar cap.
Proof using H. apply (rel_scan_block_scalar_pair cap 0). exact (ScanPairBlock.scan_block_scalar_ok cap H false 0). Qed.
End Contracts.
Check scan_directive_ok.
Check scan_tag_ok.
Check scan_anchor_ok.
Check scan_block_scalar_ok.

Lemma scan_backends_agree : forall (orig : list chr) cap, (8 <= cap)%nat -> forall F K,
  scan_agree (scan_all str_ops F K (init_sc {| si_chars := orig; si_look := 0 |}) [])
             (scan_all (buf_ops cap) F K (init_sc {| b_buf := []; b_rest := orig |}) []).
Proof.
  intros orig cap H. exact (scan_str_buf_agree orig cap H (scan_directive_ok cap H) (scan_tag_ok cap H)
    (scan_anchor_ok cap H) (scan_flow_scalar_ok cap H) (scan_plain_scalar_ok cap H) (scan_block_scalar_ok cap H)).
Qed.

Lemma scan_backends_equal : forall (orig : list chr) cap, (8 <= cap)%nat -> forall F K,
  se_proper (snd (scan_all str_ops F K (init_sc {| si_chars := orig; si_look := 0 |}) [])) ->
  se_proper (snd (scan_all (buf_ops cap) F K (init_sc {| b_buf := []; b_rest := orig |}) [])) ->
  scan_all str_ops F K (init_sc {| si_chars := orig; si_look := 0 |}) [] =
  scan_all (buf_ops cap) F K (init_sc {| b_buf := []; b_rest := orig |}) [].
Proof.
  intros orig cap H. exact (scan_str_buf_equal orig cap H (scan_directive_ok cap H) (scan_tag_ok cap H)
    (scan_anchor_ok cap H) (scan_flow_scalar_ok cap H) (scan_plain_scalar_ok cap H) (scan_block_scalar_ok cap H)).
Qed.

Lemma pipeline_backends_agree : forall (orig : list N) cap, (8 <= cap)%nat ->
  run_str orig = run_buf cap orig \/ pend_bad (snd (run_str orig)) \/ snd (run_buf cap orig) = PFuel.
Proof.
  intros orig cap H. exact (run_str_buf_agree_safe orig cap H (scan_directive_ok cap H) (scan_tag_ok cap H)
    (scan_anchor_ok cap H) (scan_flow_scalar_ok cap H) (scan_plain_scalar_ok cap H) (scan_block_scalar_ok cap H)).
Qed.

(* the string run always ends properly (ScanFuelAll.pipeline_ends_properly): the only exception left is fuel on the buffered side *)
Lemma pipeline_backends_agree_total : forall (orig : list N) cap, 8 <= cap ->
  run_str orig = run_buf cap orig \/ snd (run_buf cap orig) = PFuel.
Proof.
  intros orig cap H. destruct (pipeline_backends_agree orig cap H) as [E|[B|F]]; [left; exact E| |right; exact F].
  pose proof (ScanFuelAll.pipeline_ends_properly orig) as P. destruct (snd (run_str orig)); cbn in *; contradiction.
Qed.
