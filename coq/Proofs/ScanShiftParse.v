(* C15, parser level: the parser is equivariant under a shift of the positions.

   The parser model (Parser.v) never looks inside a marker: markers are only copied from token spans into event
   spans, into error values, and into the state [SFlowSequenceEntryMappingEnd m].  So every parser function COMMUTES
   with the map [em] = "add [sh_i d] to the index and [sh_l d] to the line" lifted to spans, tokens, parser states,
   parsers, events and results: ParserMap.v proves that for any map on markers, and the maps defined here are its maps
   at this [em].

     state_machine_shift_pos   state_machine (epa d p) = mres d (eep d) (state_machine p)
     steps_shift_pos           steps p evs q -> steps (epa d p) (map (eev d) evs) (epa d q)
     accepts_shift_pos         accepts toks keep evs -> accepts (map (sht d) toks) keep (map (eev d) evs) *)
From Coq Require Import List NArith Bool Arith Lia.
Import ListNotations.
Require Import Parser SBase SPrim SDir SScalar SFetch Pipe DocRun ScanShift ParserMap.
Local Open Scope nat_scope.

Section ParseShift.
Variable d : shift.

Definition em (m : marker) : marker := shm d m.
Definition esp (s : span) : span := {| sp_start := em (sp_start s); sp_end := em (sp_end s) |}.
Definition etk (t : token) : token := (esp (fst t), snd t).
Definition est (s : pstate) : pstate :=
  match s with SFlowSequenceEntryMappingEnd m => SFlowSequenceEntryMappingEnd (em m) | s => s end.
Definition epa (p : parser) : parser :=
  {| p_toks := map etk (p_toks p); p_token := option_map etk (p_token p);
     p_states := map est (p_states p); p_state := est (p_state p);
     p_anchors := p_anchors p; p_anchor_id := p_anchor_id p; p_tags := p_tags p; p_keep_tags := p_keep_tags p |}.
Definition eev (v : event * span) : event * span := (fst v, esp (snd v)).
(* on the values the parser functions return *)
Definition ept (v : token * parser) : token * parser := (etk (fst v), epa (snd v)).
Definition eep (v : (event * span) * parser) : (event * span) * parser := (eev (fst v), epa (snd v)).
Definition e3 (v : N * option tag * parser) : N * option tag * parser := (fst v, epa (snd v)).
Definition mres {A B} (f : A -> B) (r : Parser.res A) : Parser.res B :=
  match r with
  | Parser.Ok v => Parser.Ok (f v)
  | Parser.Err PErrScan => Parser.Err PErrScan
  | Parser.Err (PErr s m) => Parser.Err (PErr s (em m))
  | Parser.Panic n => Parser.Panic n
  end.

(* Every parser function commutes with the shift *)
Definition rc {A B} (f : A -> B) (r : Parser.res A) (r' : Parser.res B) : Prop := r' = mres f r.

Lemma node_props_comm p t : rc e3 (node_props p t) (node_props (epa p) (etk t)).
Proof. exact (node_props_map em p t). Qed.
Lemma node_content_comm p aid tg b i : rc eep (node_content p aid tg b i) (node_content (epa p) aid tg b i).
Proof. exact (node_content_map em p aid tg b i). Qed.
Lemma process_directives_call p vs tags :
  rc epa (process_directives (S (S (length (p_toks p)))) p vs tags)
         (process_directives (S (S (length (p_toks (epa p))))) (epa p) vs tags).
Proof. exact (process_directives_call_map em p vs tags). Qed.
Lemma skip_document_ends_call p :
  rc epa (skip_document_ends (S (S (length (p_toks p)))) p)
         (skip_document_ends (S (S (length (p_toks (epa p))))) (epa p)).
Proof. exact (skip_document_ends_call_map em p). Qed.
Lemma explicit_document_start_comm p : rc eep (explicit_document_start p) (explicit_document_start (epa p)).
Proof. exact (explicit_document_start_map em p). Qed.

Theorem state_machine_comm p : rc eep (state_machine p) (state_machine (epa p)).
Proof. exact (state_machine_map em p). Qed.

(* Runs *)
Theorem state_machine_shift_pos p : state_machine (epa p) = mres eep (state_machine p).
Proof. exact (state_machine_comm p). Qed.

Lemma steps_shift_pos p evs q : steps p evs q -> steps (epa p) (map eev evs) (epa q).
Proof.
  induction 1 as [p|p e p1 l p2 H1 _ IH]; cbn [map]; [constructor|].
  econstructor; [|exact IH]. rewrite state_machine_shift_pos, H1. reflexivity.
Qed.
Lemma etk_sht t : etk t = sht d t.
Proof. reflexivity. Qed.
Lemma epa_start toks keep : epa (start_parser toks keep) = start_parser (map (sht d) toks) keep.
Proof. reflexivity. Qed.
Lemma evs_of_eev l : evs_of (map eev l) = evs_of l.
Proof. unfold evs_of. rewrite map_map. reflexivity. Qed.
Theorem accepts_shift_pos toks keep evs : accepts toks keep evs -> accepts (map (sht d) toks) keep (map eev evs).
Proof.
  intros (q & HS & HE). exists (epa q). rewrite <- epa_start. split; [apply steps_shift_pos; exact HS|].
  cbn [epa p_state]. rewrite HE. reflexivity.
Qed.
End ParseShift.

Print Assumptions state_machine_shift_pos.
Print Assumptions accepts_shift_pos.
