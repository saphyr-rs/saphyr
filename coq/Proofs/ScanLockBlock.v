(* The BLOCK SCALAR family under any lock.

   The lookahead counters of the two sides agree on being zero, so [buf_is_empty] gives the same answer on both sides
   and the buffered-loop / raw-path split of a content line ([scan_block_scalar_content_line]) happens at the same
   place; the content characters are not breaks, so they are consumed in lockstep; every line ends with [skip_break]
   (one step: [l_skip_break]); breaks are COUNTED ([nls]), never copied, so the scalar text is equal; chomping reads
   [is_z] of the next character, the column, and the line against the captured start ([l_line_eqb]).  Every loop is
   iteration-lockstep; every lemma quantifies over two independent fuels per loop.

   The local [fix] loops of SScalar.v are the [bs_*] of ScanLoops.v. *)
From Coq Require Import List NArith ZArith Bool Arith Lia.
Import ListNotations.
Require Import Parser SBase SPrim SDir SScalar SFetch ScanLoops ScanLock ScanLockPrim.
Local Open Scope nat_scope.

Section Block.
Context {b1 : chr -> chr} {M : marker -> marker -> Prop} {R : bst -> bst -> Prop} (L : lock b1 M R).
Local Notation wp := (lwp M).

(* ---------------- (1) scan_block_scalar_content_line ----------------
   buffered loop: the same [buf_is_empty] answer on both sides (equal lookahead counters); a content character is
   not a break, hence not a line feed: lockstep, the same character pushed *)
Lemma lwp_go : forall f1 f2 acc s1 s2, R s1 s2 ->
  wp (bs_go sops f1 acc) (bs_go sops f2 acc) (lpost R eq) s1 s2.
Proof.
  induction f1 as [|f1 IH]; intros f2 acc s1 s2 H; [exact I|]. destruct f2 as [|f2]; [apply lwp_oof_r|].
  cbn [bs_go]. apply lwp_bind. apply (lwp_buf_is_empty L); [exact H|].
  destruct (Nat.eqb (lk s1) 0); [apply lwp_ret_bpost; [reflexivity|exact H]|].
  apply lwp_bind. apply (lwp_peek L); [exact H|]. b1_norm L.
  destruct (is_breakz (rn s1 0)) eqn:Eb; [apply lwp_ret_bpost; [reflexivity|exact H]|].
  assert (N0 : rn s1 0 <> 10%N) by (intros E; rewrite E in Eb; discriminate).
  rewrite (sees_other _ (l_sees L) _ N0).
  apply lwp_bind. apply (lwp_skip_blank L); [exact H|exact N0|]. intros u1 u2 HU _. apply IH. exact HU.
Qed.
(* raw fast path: [raw_read] returns the same character on both sides, or stops on both *)
Lemma lwp_raw : forall f1 f2 acc n s1 s2, R s1 s2 ->
  wp (bs_raw sops f1 acc n) (bs_raw sops f2 acc n) (lpost R eq) s1 s2.
Proof.
  induction f1 as [|f1 IH]; intros f2 acc n s1 s2 H; [exact I|]. destruct f2 as [|f2]; [apply lwp_oof_r|].
  cbn [bs_raw]. apply lwp_bind. apply (l_raw_read L); [exact H|]. intros c t1 t2 HT _ _ _.
  destruct c as [x|].
  - apply IH. exact HT.
  - apply lwp_bind. apply (lwp_adv_mark L); [exact HT|]. intros u1 u2 HU _.
    apply lwp_ret_bpost; [reflexivity|exact HU].
Qed.
Lemma lwp_content_line F1 F2 acc s1 s2 : R s1 s2 ->
  wp (scan_block_scalar_content_line sops F1 acc) (scan_block_scalar_content_line sops F2 acc) (lpost R eq) s1 s2.
Proof.
  intros H. rewrite !content_line_eq.
  eapply lwp_call_eq; [apply lwp_go; exact H|]. intros a t1 t2 HT.
  apply lwp_bind. apply (lwp_buf_is_empty L); [exact HT|]. destruct (Nat.eqb (lk t1) 0).
  - apply lwp_raw. exact HT.
  - apply lwp_ret_bpost; [reflexivity|exact HT].
Qed.

(* (2) skip_spaces_to: spaces only, lockstep *)
Lemma lwp_skip_spaces_to indent cb : forall f1 f2 s1 s2, R s1 s2 ->
  wp (skip_spaces_to sops f1 indent cb) (skip_spaces_to sops f2 indent cb) (lpost R eq) s1 s2.
Proof.
  induction f1 as [|f1 IH]; intros f2 s1 s2 H; [exact I|]. destruct f2 as [|f2]; [apply lwp_oof_r|].
  cbn [skip_spaces_to]. apply lwp_bind.
  apply lwp_mono with (Q := fun (e1 : bool) (t1 : bst) (e2 : bool) (t2 : bst) => e1 = e2 /\ t1 = s1 /\ t2 = s2).
  { destruct cb; [apply (lwp_buf_is_empty L); [exact H|]|apply lwp_ret]; auto. }
  intros e t1 e2 t2 (<- & -> & ->).
  apply lwp_bind. apply (lwp_col L); [exact H|]. cbv beta.
  destruct (e || negb (m_col (sc_mark s1) <? indent)%N); [apply lwp_ret_bpost; [reflexivity|exact H]|].
  apply lwp_bind. apply (lwp_peek L); [exact H|]. b1_norm L.
  destruct (N.eqb_spec (rn s1 0) 32) as [E|NE]; [|apply lwp_ret_bpost; [reflexivity|exact H]].
  assert (N0 : rn s1 0 <> 10%N) by (rewrite E; discriminate).
  apply lwp_bind. apply (lwp_skip_blank L); [exact H|exact N0|]. intros u1 u2 HU _. apply IH. exact HU.
Qed.

(* (3) the indentation phase of skip_block_scalar_indent: narrow / wide *)
Lemma lwp_wide F1 F2 indent : forall f1 f2 s1 s2, R s1 s2 ->
  wp (bs_wide sops F1 indent f1) (bs_wide sops F2 indent f2) (lpost R eq) s1 s2.
Proof.
  induction f1 as [|f1 IH]; intros f2 s1 s2 H; [exact I|]. destruct f2 as [|f2]; [apply lwp_oof_r|].
  cbn [bs_wide]. apply lwp_bind. apply (lwp_look L); [exact H|]. intros t1 t2 HT _ _ _ _ _.
  eapply lwp_call_eq; [apply lwp_skip_spaces_to; exact HT|]. intros [] u1 u2 HU.
  apply lwp_bind. apply (lwp_col L); [exact HU|]. cbv beta.
  apply lwp_bind. apply (lwp_buf_is_empty L); [exact HU|]. cbv beta.
  apply lwp_bind.
  apply lwp_mono with (Q := fun (c1 : chr) (v1 : bst) (c2 : chr) (v2 : bst) =>
                              (c2 =? 32)%N = (c1 =? 32)%N /\ v1 = u1 /\ v2 = u2).
  { destruct (Nat.eqb (lk u1) 0); [apply lwp_ret; auto|]. apply (lwp_peek L); [exact HU|]. b1_norm L. auto. }
  intros c1 v1 c2 v2 (Ec & -> & ->). rewrite Ec.
  match goal with |- lwp _ (if ?b then _ else _) _ _ _ _ => destruct b end.
  - apply lwp_ret_bpost; [reflexivity|exact HU].
  - apply IH. exact HU.
Qed.
Lemma lwp_spp F1 F2 indent s1 s2 : R s1 s2 ->
  wp (bs_spp sops F1 indent) (bs_spp sops F2 indent) (lpost R eq) s1 s2.
Proof.
  intros H. unfold bs_spp. destruct (indent <? N.of_nat (bufmaxlen sops - 2))%N.
  - apply lwp_bind. apply (lwp_look L); [exact H|]. intros t1 t2 HT _ _ _ _ _.
    apply lwp_skip_spaces_to. exact HT.
  - eapply lwp_call_eq; [apply lwp_wide; exact H|]. intros [] t1 t2 HT.
    apply (lwp_look L); [exact HT|]. intros u1 u2 HU _ _ _ _ _. unfold lpost. split; [reflexivity|exact HU].
Qed.

(* (4) skip_block_scalar_indent: every empty line ends with [skip_break] *)
Lemma lwp_skip_bsi F1 F2 indent : forall f1 f2 breaks s1 s2, R s1 s2 ->
  wp (skip_block_scalar_indent sops F1 f1 indent breaks) (skip_block_scalar_indent sops F2 f2 indent breaks)
      (lpost R eq) s1 s2.
Proof.
  induction f1 as [|f1 IH]; intros f2 breaks s1 s2 H; [exact I|]. destruct f2 as [|f2]; [apply lwp_oof_r|].
  rewrite !sbsi_eq. apply lwp_bind.
  change (Nat.ltb (bufmaxlen sops) 2) with false. cbv iota. apply lwp_ret.
  eapply lwp_call_eq; [apply lwp_spp; exact H|]. intros [] u1 u2 HU.
  apply lwp_bind. apply (lwp_next_is L); [exact HU|exact (sees_is_break _ (l_sees L))|].
  destruct (is_break (rn u1 0)).
  - apply lwp_bind. apply (l_skip_break L); [exact HU|]. intros v1 v2 HV. apply IH. exact HV.
  - apply lwp_ret_bpost; [reflexivity|exact HU].
Qed.

(* (5) skip_first_line_indent *)
Lemma lwp_sfl : forall f1 f2 s1 s2, R s1 s2 -> wp (bs_sfl sops f1) (bs_sfl sops f2) (lpost R eq) s1 s2.
Proof.
  induction f1 as [|f1 IH]; intros f2 s1 s2 H; [exact I|]. destruct f2 as [|f2]; [apply lwp_oof_r|].
  cbn [bs_sfl]. apply lwp_bind. apply (lwp_look_ch L); [exact H|]. intros u1 u2 HU _ _ _ _. b1_norm L.
  destruct (N.eqb_spec (rn u1 0) 32) as [E|NE]; [|apply lwp_ret_bpost; [reflexivity|exact HU]].
  assert (N0 : rn u1 0 <> 10%N) by (rewrite E; discriminate).
  apply lwp_bind. apply (lwp_skip_blank L); [exact HU|exact N0|]. intros v1 v2 HV _. apply IH. exact HV.
Qed.
Lemma lwp_sfli F1 F2 : forall f1 f2 maxi breaks s1 s2, R s1 s2 ->
  wp (skip_first_line_indent sops F1 f1 maxi breaks) (skip_first_line_indent sops F2 f2 maxi breaks)
      (lpost R eq) s1 s2.
Proof.
  induction f1 as [|f1 IH]; intros f2 maxi breaks s1 s2 H; [exact I|]. destruct f2 as [|f2]; [apply lwp_oof_r|].
  rewrite !sfli_eq.
  eapply lwp_call_eq; [apply lwp_sfl; exact H|]. intros [] u1 u2 HU.
  apply lwp_bind. apply (lwp_col L); [exact HU|]. cbv beta.
  apply lwp_bind. apply (lwp_next_is L); [exact HU|exact (sees_is_break _ (l_sees L))|].
  destruct (is_break (rn u1 0)).
  - apply lwp_bind. apply (lwp_look L); [exact HU|]. intros v1 v2 HV _ _ _ _ _.
    apply lwp_bind. apply (l_skip_break L); [exact HV|]. intros w1 w2 HW. apply IH. exact HW.
  - apply lwp_ret_bpost; [reflexivity|exact HU].
Qed.

(* (6) scan_block_scalar *)
Theorem scan_block_scalar_ok F1 F2 literal s1 s2 : R s1 s2 -> rn s1 0 <> 10%N ->
  wp (scan_block_scalar sops F1 literal) (scan_block_scalar sops F2 literal) (lpost R (Mtok M)) s1 s2.
Proof.
  intros H N0. unfold scan_block_scalar. cbv zeta.
  apply lwp_bind. apply (lwp_mark L); [exact H|]. intros HM0.
  apply lwp_bind. apply (lwp_skip_non_blank L); [exact H|exact N0|]. intros a1 a2 HA _.
  apply lwp_bind. apply (lwp_unroll_non_block_indents L); [exact HA|]. intros p1 p2 HP _.
  apply lwp_bind. apply (lwp_look_ch L); [exact HP|]. intros c1 c2 HC _ _ _ _. b1_norm L.
  (* the header: chomping and indentation indicators, in either order; each character consumed has just been
     tested, so it is not a line feed *)
  eapply lwp_call_eq.
  { destruct ((rn c1 0 =? 43) || (rn c1 0 =? 45))%N eqn:Epm.
    - assert (Nc : rn c1 0 <> 10%N) by (intros E; rewrite E in Epm; discriminate).
      apply lwp_bind. apply (lwp_skip_non_blank L); [exact HC|exact Nc|]. intros d1 d2 HD _.
      apply lwp_bind. apply (lwp_look L); [exact HD|]. intros e1 e2 HE _ _ _ _ _.
      apply lwp_bind. apply (lwp_peek L); [exact HE|]. b1_norm L.
      destruct (is_digit (rn e1 0)) eqn:Ed; [|apply lwp_ret_bpost; [reflexivity|exact HE]].
      assert (Nd : rn e1 0 <> 10%N) by (intros E; rewrite E in Ed; discriminate).
      rewrite (sees_other _ (l_sees L) _ Nd).
      destruct (rn e1 0 =? 48)%N; [apply lwp_fail; exact HM0|].
      apply lwp_bind. apply (lwp_skip_non_blank L); [exact HE|exact Nd|]. intros f1 f2 HF _.
      apply lwp_ret_bpost; [reflexivity|exact HF].
    - destruct (is_digit (rn c1 0)) eqn:Ed; [|apply lwp_ret_bpost; [reflexivity|exact HC]].
      assert (Nc : rn c1 0 <> 10%N) by (intros E; rewrite E in Ed; discriminate).
      rewrite (sees_other _ (l_sees L) _ Nc).
      destruct (rn c1 0 =? 48)%N; [apply lwp_fail; exact HM0|].
      apply lwp_bind. apply (lwp_skip_non_blank L); [exact HC|exact Nc|]. intros d1 d2 HD _.
      apply lwp_bind. apply (lwp_look L); [exact HD|]. intros e1 e2 HE _ _ _ _ _.
      apply lwp_bind. apply (lwp_peek L); [exact HE|]. b1_norm L.
      destruct ((rn e1 0 =? 43) || (rn e1 0 =? 45))%N eqn:Epm2; [|apply lwp_ret_bpost; [reflexivity|exact HE]].
      assert (Nd : rn e1 0 <> 10%N) by (intros E; rewrite E in Epm2; discriminate).
      apply lwp_bind. apply (lwp_skip_non_blank L); [exact HE|exact Nd|]. intros f1 f2 HF _.
      apply lwp_ret_bpost; [reflexivity|exact HF]. }
  intros [chomp increment] g1 g2 HG. cbv beta iota.
  (* the rest of the header line, and its line break *)
  eapply lwp_call_eq; [apply (skip_ws_to_eol_ok L); exact HG|]. intros tw h1 h2 HH.
  apply lwp_bind. apply (lwp_look L); [exact HH|]. intros i1 i2 HI _ _ _ _ _.
  apply lwp_bind. apply (lwp_peek L); [exact HI|]. b1_norm L.
  destruct (is_breakz (rn i1 0)); cbn [negb]; [|apply lwp_fail; exact HM0].
  eapply lwp_call_eq.
  { destruct (is_break (rn i1 0)); [|apply lwp_ret_bpost; [reflexivity|exact HI]].
    apply lwp_bind. apply (lwp_look L); [exact HI|]. intros j1 j2 HJ _ _ _ _ _.
    apply lwp_bind. apply (l_skip_break L); [exact HJ|]. intros k1 k2 HK.
    apply lwp_ret_bpost; [reflexivity|exact HK]. }
  intros cbreak j1 j2 HJ.
  apply lwp_bind. apply (lwp_look_ch L); [exact HJ|]. intros k1 k2 HK _ _ _ _. b1_norm L.
  destruct (rn k1 0 =? 9)%N; [apply lwp_fail; exact HM0|].
  apply lwp_bind. apply lwp_get. cbv beta. l_sync L HK.
  (* the indentation of the first content line *)
  match goal with |- lwp _ (bind (if (?i =? 0)%N then _ else _) _) _ _ _ _ => set (indent0 := i) end.
  eapply lwp_call_eq.
  { destruct (indent0 =? 0)%N.
    - eapply lwp_call_eq; [apply lwp_sfli; exact HK|]. intros r l1 l2 HL.
      apply lwp_ret_bpost; [reflexivity|exact HL].
    - eapply lwp_call_eq; [apply lwp_skip_bsi; exact HK|]. intros r l1 l2 HL.
      apply lwp_ret_bpost; [reflexivity|exact HL]. }
  intros [indent tbreaks] l1 l2 HL. cbv beta iota.
  apply lwp_bind. apply (lwp_next_is L); [exact HL|exact (sees_is_z _ (l_sees L))|]. cbv beta.
  apply lwp_bind. apply lwp_get. cbv beta. l_sync L HL. rewrite ?(l_line_eqb L _ _ _ _ (l_mark L _ _ HL) HM0).
  destruct (is_z (rn l1 0)).
  { (* the scalar is empty: chomping looks at the line (against the captured start), the column and the count *)
    apply lwp_ret_bpost; [|exact HL]. apply Mtok_mk. apply Msp_mk; [exact HM0|exact (l_mark L _ _ HL)]. }
  (* "wrongly indented" check *)
  eapply lwp_call_eq.
  { match goal with |- lwp _ (if ?b then _ else _) _ _ _ _ => destruct b end;
      [|apply lwp_ret_bpost; [reflexivity|exact HL]].
    apply lwp_bind. apply (lwp_look L); [exact HL|]. intros m1 m2 HM _ _ _ _ _.
    apply lwp_bind. apply (lwp_next_is_document_indicator L); [exact HM|].
    apply lwp_ret_bpost; [reflexivity|exact HM]. }
  intros wrong m1 m2 HM. destruct wrong; [apply lwp_fail; exact (l_mark L _ _ HL)|].
  apply lwp_bind. apply lwp_get. cbv beta.
  (* the main loop: one content line per round *)
  eapply lwp_call_eq.
  { match goal with |- lwp _ (?g1 F1 [] 0%N tbreaks false) (?g2 F2 [] 0%N tbreaks false) _ _ _ =>
      assert (Hgo : forall f1 f2 acc lb tb ldb u1 u2, R u1 u2 ->
                      wp (g1 f1 acc lb tb ldb) (g2 f2 acc lb tb ldb) (lpost R eq) u1 u2) end.
    { induction f1 as [|f1 IH]; intros f2 acc lb tb ldb u1 u2 HU; [exact I|].
      destruct f2 as [|f2]; [apply lwp_oof_r|]. lazy beta iota.
      apply lwp_bind. apply (lwp_col L); [exact HU|]. cbv beta.
      apply lwp_bind. apply (lwp_next_is L); [exact HU|exact (sees_is_z _ (l_sees L))|]. cbv beta.
      match goal with |- lwp _ (if ?b then _ else _) _ _ _ _ => destruct b end;
        [apply lwp_ret_bpost; [reflexivity|exact HU]|].
      eapply lwp_call_eq.
      { destruct (indent =? 0)%N; [|apply lwp_ret_bpost; [reflexivity|exact HU]].
        apply lwp_bind. apply (lwp_look L); [exact HU|]. intros v1 v2 HV _ _ _ _ _.
        apply (lwp_next_is_document_indicator L); [exact HV|]. unfold lpost. split; [reflexivity|exact HV]. }
      intros de v1 v2 HV. destruct de; [apply lwp_ret_bpost; [reflexivity|exact HV]|].
      apply lwp_bind. apply (lwp_next_is L); [exact HV|exact (sees_is_blank _ (l_sees L))|]. cbv beta.
      eapply lwp_call_eq; [apply lwp_content_line; exact HV|]. intros acc1 w1 w2 HW.
      apply lwp_bind. apply (lwp_look L); [exact HW|]. intros x1 x2 HX _ _ _ _ _.
      apply lwp_bind. apply (lwp_next_is L); [exact HX|exact (sees_is_z _ (l_sees L))|]. cbv beta.
      destruct (is_z (rn x1 0)); [apply lwp_ret_bpost; [reflexivity|exact HX]|].
      apply lwp_bind. apply (l_skip_break L); [exact HX|]. intros y1 y2 HY.
      eapply lwp_call_eq; [apply lwp_skip_bsi; exact HY|]. intros tb1 z1 z2 HZ.
      apply IH. exact HZ. }
    apply Hgo. exact HM. }
  intros [[acc lb] tb] n1 n2 HN. cbv beta iota.
  (* tail chomping: [is_z] of the next character and the column, the same on both sides *)
  apply lwp_bind. apply (lwp_next_is L); [exact HN|exact (sees_is_z _ (l_sees L))|]. cbv beta.
  apply lwp_bind. apply (lwp_col L); [exact HN|]. cbv beta.
  apply lwp_bind. apply (lwp_mark L); [exact HN|]. intros HMn.
  apply lwp_ret_bpost; [|exact HN]. apply Mtok_mk. apply Msp_mk; [exact (l_mark L _ _ HM)|exact HMn].
Qed.

End Block.
