(* C09 — the scanner model on the text the emitter writes for a simple tree: the document header line "---", then a
   document of the block text sub-language (Spec/BlockText.v) WITHOUT its final line feed.  The induction of
   Proofs/ScanBlockProofs.v brings the scanner in front of the last word of the text, whatever follows it ([LastScan]); here
   nothing follows: the word's simple key is still possible when the end of the input is reached, so its token is handed out
   together with the BlockEnd tokens and StreamEnd. *)
From Coq Require Import List NArith ZArith Bool Arith Lia.
Import ListNotations.
Require Import Parser SBase SPrim SDir SScalar SFetch Pipe Drivers TokenGrammar FlowText BlockText ScanFlowProofs ScanBlockProofs ScanFrame ScalarContext EmitterRoundTripDefs ScanSimpl.
Open Scope N_scope.
Open Scope mon_scope.

(* a word in front of the end of the input *)
Lemma chunk_word_eof w : forall fuel j acc l i ln c0 q adj ska k ind inds tp ta,
  forallb wch w = true -> (2 * length w + 2 <= fuel)%nat ->
  exists l', plain_chunk str_ops fuel j acc (mkb w l (mkm i ln c0) q adj ska k ind inds tp ta false)
  = Ok (rev w ++ acc, mkb [] l' (mkm (i + N.of_nat (length w)) ln (c0 + N.of_nat (length w))) q adj ska k ind inds tp ta false).
Proof.
  intros fuel j acc l i ln c0 q adj ska k ind inds tp ta Hw Hf.
  pose proof (chunk_word_b w fuel j acc l i ln c0 q adj ska k ind inds tp ta [] Hw (or_introl eq_refl) Hf) as H.
  rewrite app_nil_r in H. exact H.
Qed.

Lemma scan_word_eof F c w l i ln c0 q adj ska k ind inds ind1 inds1 tp ta lws :
  forallb wch (c :: w) = true -> (lws && (c0 =? 0)) = false -> unroll_nb inds ind = (ind1, inds1) ->
  (2 * length w + 3 <= F)%nat ->
  exists l',
  scan_plain_scalar str_ops F (mkb (c :: w) l (mkm i ln c0) q adj ska k ind inds tp ta lws)
  = Ok ((spn (mkm i ln c0) (mkm (i + wlen c w) ln (c0 + wlen c w)), TScalar Plain (c :: w)),
        mkb [] l' (mkm (i + wlen c w) ln (c0 + wlen c w)) q adj ska k ind1 inds1 tp ta false).
Proof.
  intros Hw Hdi Hnb HF.
  pose proof (scan_word_stop F c w [] l i ln c0 q adj ska k ind inds ind1 inds1 tp ta lws Hw (or_introl (conj eq_refl Hdi)) Hnb HF) as H.
  rewrite app_nil_r in H. exact H.
Qed.

(* the end of the input behind a word *)
(* the state behind the last word: at the end of the input, not at column 0, [q] queued, the block collections [cols] open *)
Definition endst (l : nat) (i ln c : N) (q : list token) (adj : N) (K : SBase.simple_key) (cols : list N) (tp : N) : sc strin :=
  mkb [] l (mkm i ln c) q adj false K (fst (stk cols)) (snd (stk cols)) tp false false.

(* after [nb] fetches the queue holds the tokens [ts] and StreamEnd and no key is possible: they are handed out, the scanner ends *)
Lemma finish F (s : sc strin) nb l m ts adj k tp lws :
  (nb + 1 <= F)%nat -> sc_stream_end s = false ->
  (forall b, ntb F (nb + b) s = ntb F b (mkb [] l m (ts ++ [se_tok m]) adj false k (-1)%Z [] tp false lws)) ->
  sk_possible k = false -> no_se ts ->
  forall fuel acc, (S (length ts) < fuel)%nat -> scan_all str_ops F fuel s acc = (rev acc ++ ts ++ [se_tok m], SEnded).
Proof.
  intros HF Hse Hnb Hk Hts fuel acc Hfuel.
  apply (end_scan F s [] l m ts m adj false k (-1)%Z [] tp lws); [lia | | exact Hts | exact Hk | lia].
  intros r Hr. apply (nt_of_ntb F (nb + 1)); [exact Hse | exact HF |]. rewrite Hnb. exact Hr.
Qed.

(* the last word has been fetched (its key may still be possible): then the end of the input is fetched *)
Lemma end_from_E F (s : sc strin) l i ln c t adj K cols tp :
  (3 <= F)%nat -> canon s -> fetch_next_token str_ops F s = Ok (tt, endst l i ln c [t] adj K cols tp) -> snd t <> TStreamEnd ->
  (c =? 0) = false -> (fst (stk cols) <= Z.of_N c)%Z -> (sk_required K && sk_possible K) = false ->
  exists toks, map snd toks = snd t :: repeat TBlockEnd (length cols) ++ [TStreamEnd] /\
    forall fuel acc, (length toks < fuel)%nat -> scan_all str_ops F fuel s acc = (rev acc ++ toks, SEnded).
Proof.
  intros HF Hcanon Hf Ht _ _ Hreq.
  destruct (grounded_stk cols ltac:(apply Forall_forall; trivial)) as [Hg <-].
  exact (end_unit F s l (mkm i ln c) t adj false K _ _ tp false HF Hcanon Hf Ht Hreq Hg).
Qed.

Lemma last_word_end F s c0 w cols :
  at_last s (c0 :: w) cols -> forallb wch (c0 :: w) = true -> (2 * length w + 5 <= F)%nat ->
  exists toks, map snd toks = TScalar Plain (c0 :: w) :: repeat TBlockEnd (length cols) ++ [TStreamEnd] /\
    forall fuel acc, (length toks < fuel)%nat -> scan_all str_ops F fuel s acc = (rev acc ++ toks, SEnded).
Proof.
  intros Hat Hw HF. pose proof Hw as Hw0. cbn [forallb] in Hw0. apply andb_prop in Hw0 as [Hc0 _].
  rewrite <- (app_nil_r w) in Hat.
  destruct (at_last_fetch F s c0 w [] cols Hat Hc0 ltac:(lia))
    as (Hcanon & l' & i & ln & c1 & adj & ska & k & tp & lws & ind & inds & Hc1 & Hlt & Hnb & Hreq & HK & Hf).
  destruct (word_stop_step F c0 w [] l' i ln c1 [] adj ska k ind inds (fst (stk cols)) (snd (stk cols)) tp false lws Hw
              ltac:(left; split; [reflexivity | rewrite Hc1; apply andb_false_r]) ltac:(rewrite Hnb; apply surjective_pairing) Hreq ltac:(lia))
    as (l1 & E1).
  rewrite E1 in Hf. cbn [app] in Hf.
  eapply (end_from_E F s l1 _ ln _ (_, TScalar Plain (c0 :: w)) adj _ cols tp); [lia | exact Hcanon | exact Hf | discriminate | | | ].
  - apply N.eqb_neq. apply N.eqb_neq in Hc1. lia.
  - lia.
  - destruct HK as [-> | [-> _]]; [apply andb_false_r | reflexivity].
Qed.

(* the block text without its final line feed *)
(* no indentless sequence (the emitter writes none) *)
Fixpoint nobi (n : bnode) : bool :=
  match n with
  | BW _ => true
  | BS _ items => forallb nobi items
  | BM _ pairs => forallb (fun p => nobi (snd p)) pairs
  | BI _ => false
  end.

Lemma blast_brz n : bwf_root n = true -> blast n = brz 0 n [].
Proof.
  intros H. unfold bwf_root in H. apply andb_prop in H as [_ H]. unfold blast, bdoc_text.
  rewrite <- (app_nil_r (brender 0 n)), (brender_brz n true 0%nat [] H). change [10] with ([] ++ [10]).
  rewrite brz_app. apply removelast_last.
Qed.
