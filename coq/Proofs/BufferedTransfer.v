(* Transfer of the string-input theorems (C12 positions, C14 break style) to the BUFFERED input back-end of any
   capacity >= 8 — the back-end behind Parser::new_from_iter and Yaml::load_from_str — through the back-end agreement
   of C10 (ScanFuelBufAll.pipeline_backends_equal: run_buf cap x = run_str x for every capacity >= 8 and every input).
   The theorems without the suffix [_total] carry the extra hypothesis that the buffered run does not exhaust its fuel
   (the event the correspondence run monitors as MODELFUEL); they are special cases. *)
From Coq Require Import List NArith Bool Lia.
Import ListNotations.
Require Import Parser SBase SBuf SFetch Pipe Positions PosProofs.
Require Import ScanPos ScanPosTop BreakProofs ScanBrk ScanBrkParse ScanBrkAll ScanFuelBufAll.
Open Scope N_scope.

(* C12 over the buffered back-end *)
Theorem pipeline_positions_true_buffered_total (orig : list N) cap :
  (8 <= cap)%nat -> Forall (fun c => c <> 0%N) orig ->
  let '(evs, r) := run_buf cap orig in
  Forall (fun es => true_span orig (snd es)) evs
  /\ (forall site m, r = PScanErr site m -> site <> 0%N -> true_mark orig m)
  /\ (forall site m, r = PParseErr site m -> true_mark orig m).
Proof.
  intros Hc Hz. rewrite (pipeline_backends_equal cap orig Hc). exact (pipeline_positions_true orig Hz).
Qed.

(* C14 over buffered back-ends (the two runs may even use different capacities) *)
Theorem pipeline_crlf_buffered_total (x : list chr) cap1 cap2 :
  (8 <= cap1)%nat -> (8 <= cap2)%nat -> nocr x ->
  Forall2 EVR (fst (run_buf cap1 x)) (fst (run_buf cap2 (crlf x)))
  /\ PER (snd (run_buf cap1 x)) (snd (run_buf cap2 (crlf x))).
Proof.
  intros H1 H2 Hx. rewrite (pipeline_backends_equal cap1 x H1), (pipeline_backends_equal cap2 (crlf x) H2).
  exact (pipeline_crlf_total x Hx).
Qed.

Theorem pipeline_cr_buffered_total (x : list chr) cap1 cap2 :
  (8 <= cap1)%nat -> (8 <= cap2)%nat -> nocr x ->
  Forall2 EVR (fst (run_buf cap1 x)) (fst (run_buf cap2 (cr x)))
  /\ PER (snd (run_buf cap1 x)) (snd (run_buf cap2 (cr x))).
Proof.
  intros H1 H2 Hx. rewrite (pipeline_backends_equal cap1 x H1), (pipeline_backends_equal cap2 (cr x) H2).
  exact (pipeline_cr_total x Hx).
Qed.

Theorem pipeline_positions_true_buffered (orig : list N) cap :
  (8 <= cap)%nat -> Forall (fun c => c <> 0%N) orig -> snd (run_buf cap orig) <> PFuel ->
  let '(evs, r) := run_buf cap orig in
  Forall (fun es => true_span orig (snd es)) evs
  /\ (forall site m, r = PScanErr site m -> site <> 0%N -> true_mark orig m)
  /\ (forall site m, r = PParseErr site m -> true_mark orig m).
Proof. intros Hc Hz _. exact (pipeline_positions_true_buffered_total orig cap Hc Hz). Qed.

Theorem pipeline_crlf_buffered (x : list chr) cap1 cap2 :
  (8 <= cap1)%nat -> (8 <= cap2)%nat -> nocr x ->
  snd (run_buf cap1 x) <> PFuel -> snd (run_buf cap2 (crlf x)) <> PFuel ->
  Forall2 EVR (fst (run_buf cap1 x)) (fst (run_buf cap2 (crlf x)))
  /\ PER (snd (run_buf cap1 x)) (snd (run_buf cap2 (crlf x))).
Proof. intros H1 H2 Hx _ _. exact (pipeline_crlf_buffered_total x cap1 cap2 H1 H2 Hx). Qed.

Theorem pipeline_cr_buffered (x : list chr) cap1 cap2 :
  (8 <= cap1)%nat -> (8 <= cap2)%nat -> nocr x ->
  snd (run_buf cap1 x) <> PFuel -> snd (run_buf cap2 (cr x)) <> PFuel ->
  Forall2 EVR (fst (run_buf cap1 x)) (fst (run_buf cap2 (cr x)))
  /\ PER (snd (run_buf cap1 x)) (snd (run_buf cap2 (cr x))).
Proof. intros H1 H2 Hx _ _. exact (pipeline_cr_buffered_total x cap1 cap2 H1 H2 Hx). Qed.

Print Assumptions pipeline_positions_true_buffered_total.
Print Assumptions pipeline_crlf_buffered_total.
Print Assumptions pipeline_cr_buffered_total.
