(* Joint proof "every position the scanner reports is a true position" (see SCANPOS.md): the PLAIN SCALAR family
   (scan_plain_scalar, its chunked word loop plain_chunk and its blank/break loop plain_blanks).
   Every character the word loops consume with skip_non_blank has just been seen NOT to be a blank, break or NUL;
   every skip_blank follows is_blank c, every skip_break follows is_break c; the span of the token is
   start .. endm where both are marks captured while the position invariant held. *)
From Coq Require Import List NArith ZArith Bool Arith Lia.
Import ListNotations.
Require Import Parser SBase SPrim SDir SScalar SFetch Positions ScanLoops ScanPos ScanPosPrim.
Local Open Scope nat_scope.

Arguments Nat.ltb : simpl never.
Arguments Nat.leb : simpl never.
Arguments Nat.eqb : simpl never.
Arguments Nat.sub : simpl never.

(* a pure look-up: the state is untouched, any answer must be handled *)
Lemma swp_next_can_be_plain_scalar E fl (Q : bool -> sst -> Prop) s :
  (forall b, Q b s) -> swp E (next_can_be_plain_scalar str_ops fl) Q s.
Proof.
  intros H. unfold next_can_be_plain_scalar. apply swp_bind. apply swp_peekn. apply swp_bind. apply swp_peek.
  repeat dif; apply swp_ret; apply H.
Qed.

Lemma bobz_false c : is_blank_or_breakz c = false -> is_breakz c = false.
Proof. unfold is_blank_or_breakz. intros H. apply orb_false_iff in H. tauto. Qed.

Section PosPlain.
Variable orig : list chr.
Hypothesis no_nul : Forall (fun c => c <> 0%N) orig.
Notation pwp := (swp (true_mark orig)).
Notation MarkAt := (MarkAt orig).
Notation MarkOK := (MarkOK orig).
Notation upost := (upost orig).
Notation ppost := (ppost orig).

(* flag updates do not disturb the invariant *)
Lemma markat_set_lws b pre (s : sst) : MarkAt pre s -> MarkAt pre (set_lws b s).
Proof using no_nul. intros HM. apply (markat_ext orig no_nul pre s); [exact HM|reflexivity|reflexivity]. Qed.

(* ---------------- plain_chunk: the rest of a word ----------------
   a character is consumed only after [next_is is_blank_or_breakz] answered false: it is real and not a break *)
Lemma pos_plain_chunk : forall fuel j acc s,
  MarkOK s -> pwp (plain_chunk str_ops fuel j acc) (fun _ s' => MarkOK s') s.
Proof using no_nul.
  induction fuel as [|fuel IH]; intros j acc s [pre HM]; cbn [plain_chunk]; [exact I|].
  dif.
  - apply swp_bind. apply (pwp_look orig no_nul _ pre); [exact HM|]. intros s1 M1 R1 I1.
    apply IH. exists pre; exact M1.
  - apply swp_bind. apply swp_next_is. apply swp_bind. apply swp_get. cbv beta.
    destruct (is_blank_or_breakz (rnth s 0)) eqn:Eb.
    + apply swp_bind. apply swp_ret. cbn [orb]. apply swp_ret. exists pre; exact HM.
    + apply swp_bind. apply swp_next_can_be_plain_scalar. intros cb. cbn [orb]. destruct cb; cbn [negb].
      * apply swp_bind. apply swp_peek. apply swp_bind.
        apply (pwp_skip_plain_z orig no_nul (skip_non_blank str_ops) pre);
          [right; reflexivity|exact HM|apply bobz_false; exact Eb|].
        intros s1 M1 _ _. apply IH. eexists; exact M1.
      * apply swp_ret. exists pre; exact HM.
Qed.

(* plain_blanks: blanks and breaks between the words *)
Lemma pos_plain_blanks F : forall fuel indent start lb tb ws s,
  MarkOK s -> true_mark orig start ->
  pwp (plain_blanks str_ops F fuel indent start lb tb ws) (fun _ s' => MarkOK s') s.
Proof using no_nul.
  induction fuel as [|fuel IH]; intros indent start lb tb ws s [pre HM] Hst; cbn [plain_blanks]; [exact I|].
  apply swp_bind. apply swp_peek.
  (* a blank (space or tab) consumed with skip_blank *)
  assert (Hblank : is_blank (rnth s 0) = true -> forall ws',
            pwp (bind (skip_blank str_ops) (fun _ => bind (look str_ops 2) (fun _ =>
                   plain_blanks str_ops F fuel indent start lb tb ws'))) (fun _ s' => MarkOK s') s).
  { intros Eb ws'. apply swp_bind.
    apply (pwp_skip_plain_z orig no_nul (skip_blank str_ops) pre);
      [left; reflexivity|exact HM|apply blank_not_breakz; exact Eb|].
    intros s1 M1 _ _. apply swp_bind. apply (pwp_look orig no_nul 2 _ _ s1 M1). intros s2 M2 R2 I2.
    apply IH; [eexists; exact M2|exact Hst]. }
  destruct (is_blank (rnth s 0)) eqn:Eb.
  - apply swp_bind. apply swp_get.
    destruct (negb (sc_lws s)); [apply Hblank; reflexivity|].
    dif; [|apply Hblank; reflexivity].
    (* a tab in the indentation: the rest of the line must be blank / a comment *)
    apply swp_bind. eapply swp_mono; [apply (pos_skip_ws_to_eol orig no_nul); exists pre; exact HM|].
    intros tw s1 [[pre1 M1] _].
    apply swp_bind. apply swp_next_is.
    destruct (is_breakz (rnth s1 0)); [|apply swp_fail; exact Hst].
    apply swp_bind. apply (pwp_look orig no_nul 2 pre1); [exact M1|]. intros s2 M2 R2 I2.
    apply IH; [eexists; exact M2|exact Hst].
  - destruct (is_break (rnth s 0)) eqn:Ek; [|apply swp_ret; exists pre; exact HM].
    apply swp_bind. apply swp_get.
    destruct (sc_lws s).
    + apply swp_bind. apply (pwp_skip_break orig pre); [exact HM|exact Ek|].
      intros s1 b rest Rb Ub Hb M1 R1 K1.
      apply swp_bind. apply (pwp_look orig no_nul 2 (pre ++ b)); [exact M1|]. intros s2 M2 R2 I2.
      apply IH; [eexists; exact M2|exact Hst].
    + apply swp_bind. apply (pwp_skip_break orig pre); [exact HM|exact Ek|].
      intros s1 b rest Rb Ub Hb M1 R1 K1.
      apply swp_bind. apply swp_modify.
      pose proof (markat_set_lws true _ _ M1) as M1'.
      apply swp_bind. apply (pwp_look orig no_nul 2 (pre ++ b)); [exact M1'|]. intros s2 M2 R2 I2.
      apply IH; [eexists; exact M2|exact Hst].
Qed.

(* the loop keeps the position invariant, and the end marker it returns is a mark captured under the invariant *)
Lemma pos_plain_go F indent start : true_mark orig start -> forall f acc lb tb ws endm s,
  MarkOK s -> true_mark orig endm ->
  pwp (plain_go str_ops F indent start f acc lb tb ws endm)
      (fun r s' => MarkOK s' /\ true_mark orig (snd r)) s.
Proof using no_nul.
  intros Hst. induction f as [|f IH]; intros acc lb tb ws endm s [pre HM] Hem; cbn [plain_go]; [exact I|].
  apply swp_bind. apply (pwp_look orig no_nul 4 pre); [exact HM|]. intros s1 M1 R1 I1.
  apply swp_bind. apply swp_get. apply swp_bind.
  match goal with |- swp _ _ ?Q _ => assert (HQ : forall di, Q di s1) end.
  2:{ destruct (sc_lws s1 && (m_col (sc_mark s1) =? 0)%N); [apply swp_next_is_document_indicator; exact HQ|apply swp_ret; exact (HQ false)]. }
  intros di. cbv beta.
  apply swp_bind. apply swp_peek.
  dif.
  { apply swp_ret. split; [exists pre; exact M1|exact Hem]. }
  apply swp_bind. apply swp_peekn. cbv zeta.
  dif.
  { (* error 76 at the current mark *) apply swp_fail. apply markok_true. exists pre; exact M1. }
  apply swp_bind.
  (* the first character of a word is consumed only if it is not a blank, a break or NUL *)
  match goal with |- swp _ _ ?Q _ =>
    assert (HQ : forall cb, (cb = true -> is_breakz (rnth s1 0) = false) -> Q cb s1) end.
  2:{ destruct (is_blank_or_breakz (rnth s1 0)) eqn:Eb.
      - apply swp_ret. refine (HQ false _). discriminate.
      - apply swp_next_can_be_plain_scalar. intros cb. refine (HQ cb _). intros _. apply bobz_false. exact Eb. }
  intros cb Hcb. cbv beta.
  apply swp_bind.
  (* after the word *)
  match goal with |- swp _ _ ?Q _ =>
    assert (HK : forall r s2, MarkOK s2 -> true_mark orig (snd r) -> Q r s2) end.
  { intros [[[[acc' lb'] tb'] ws'] endm'] s2 [pre2 M2] Hem2. cbv beta iota. cbn [snd] in Hem2.
    apply swp_bind. apply swp_peek.
    dif.
    { apply swp_ret. split; [exists pre2; exact M2|exact Hem2]. }
    apply swp_bind. apply (pwp_look orig no_nul 2 pre2); [exact M2|]. intros s3 M3 R3 I3.
    apply swp_bind. eapply swp_mono; [apply pos_plain_blanks; [exists pre2; exact M3|exact Hst]|].
    intros [[lb2 tb2] ws2] s4 M4. cbv beta iota.
    apply swp_bind. apply swp_get.
    dif.
    { apply swp_ret. split; [exact M4|exact Hem2]. }
    apply IH; [exact M4|exact Hem2]. }
  destruct cb; [|apply swp_ret; refine (HK (acc, lb, tb, ws, endm) s1 _ _); [exists pre; exact M1|exact Hem]].
  destruct (if sc_lws s1 then _ else _) as [[[a1 l1] t1] w1]. cbv beta iota.
  apply swp_bind. apply swp_modify.
  pose proof (markat_set_lws false _ _ M1) as Mx.
  apply swp_bind.
  apply (pwp_skip_plain_z orig no_nul (skip_non_blank str_ops) pre); [right; reflexivity|exact Mx|exact (Hcb eq_refl)|].
  intros s2 M2 R2 K2.
  apply swp_bind. apply (pwp_look orig no_nul _ _ _ s2 M2). intros s3 M3 R3 I3.
  apply swp_bind. eapply swp_mono; [apply pos_plain_chunk; eexists; exact M3|]. intros acc2 s4 M4.
  apply swp_bind. unfold mark. apply swp_gets. apply swp_ret.
  refine (HK (acc2, l1, t1, w1, sc_mark s4) s4 _ _); [exact M4|apply markok_true; exact M4].
Qed.

(* the contract *)
Theorem pos_scan_plain_scalar : forall F s, MarkOK s -> pwp (scan_plain_scalar str_ops F) (ppost s) s.
Proof using no_nul.
  intros F s [pre HM]. apply pwp_ppost; [apply ScanFrame.Fr_scan_plain_scalar|]. rewrite scan_plain_scalar_eq.
  apply swp_bind. unfold unroll_non_block_indents. apply swp_modify.
  (* unrolling the non-block indents touches the indent stack only *)
  match goal with |- swp _ _ _ ?S1 => set (s1 := S1) end.
  assert (M1 : MarkAt pre s1).
  { subst s1. destruct (unroll_nb (sc_indents s) (sc_indent s)) as [ind l].
    apply (markat_ext orig no_nul pre s); [exact HM|reflexivity|reflexivity]. }
  clearbody s1.
  apply swp_bind. apply swp_get. cbv zeta.
  assert (Hst : true_mark orig (sc_mark s1)) by (apply markok_true; exists pre; exact M1).
  dif; [apply swp_fail; exact Hst|].
  apply swp_bind. eapply swp_mono; [apply pos_plain_go; [exact Hst|exists pre; exact M1|exact Hst]|].
  intros r s2 ([pre2 M2] & T2). cbv beta.
  apply swp_bind. apply swp_get. apply swp_bind.
  destruct (sc_lws s2).
  - apply (pwp_allow_simple_key orig no_nul pre2); [exact M2|]. intros s3 M3 _ _.
    destruct (fst r); [apply swp_fail; exact Hst|]. apply swp_ret.
    split; [exists pre2; exact M3|split; [exact Hst|exact T2]].
  - apply swp_ret.
    destruct (fst r); [apply swp_fail; exact Hst|]. apply swp_ret.
    split; [exists pre2; exact M2|split; [exact Hst|exact T2]].
Qed.

End PosPlain.

Print Assumptions pos_scan_plain_scalar.
