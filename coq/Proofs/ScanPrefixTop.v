(* C15 prefix stability of the scanner (see ScanPrefix.v): assembly.
   1. the end step: side 1 at the end of its input queues StreamEnd, side 2 queues DocumentEnd for the "..." line;
   2. fetch_next_token / fetch_more_tokens / next_token in lockstep until that step;
   3. the whole run: the tokens delivered by side 2 up to DocumentEnd are side 1's tokens without StreamEnd. *)
From Coq Require Import List NArith ZArith Bool Arith Lia.
Import ListNotations.
Require Import Parser SBase SPrim SDir SScalar SFetch ScalarKit ScanRun ScanFrame DocScan LazyScan.
Require Import ScanPrefix ScanPrefixPrim ScanPrefixFetch.
Require ScanPrefixDir ScanPrefixFlow ScanPrefixPlain ScanPrefixBlock.
Local Open Scope nat_scope.

(* 0. unroll_indent as a function of the indentation fields *)
Fixpoint unr (fuel : nat) (col ind : Z) (inds : list indent_rec) (mk : marker) : option (Z * list indent_rec * list token) :=
  match fuel with
  | O => None
  | S f =>
    if (col <? ind)%Z then
      match inds with
      | [] => None
      | i :: r => match unr f col (in_indent i) r mk with
                  | Some (a, b, c) => Some (a, b, (if in_needs_block_end i then [(span_empty mk, TBlockEnd)] else []) ++ c)
                  | None => None
                  end
      end
    else Some (ind, inds, [])
  end.
Definition nerr {A} (o : outcome A) : Prop := match o with Ok _ | Err _ _ => False | _ => True end.
Lemma ugo_S fuel col (s : bst) :
  unroll_indent_go (S fuel) col s =
  if (col <? sc_indent s)%Z then
    match sc_indents s with
    | [] => Panic 113%N
    | i :: r => unroll_indent_go fuel col
                  (if in_needs_block_end i
                   then set_tokens (sc_tokens s ++ [(span_empty (sc_mark s), TBlockEnd)]) (set_indent (in_indent i) r s)
                   else set_indent (in_indent i) r s)
    end
  else Ok (tt, s).
Proof.
  cbn [unroll_indent_go]. unfold bind at 1, get at 1. destruct (col <? sc_indent s)%Z; [|reflexivity].
  destruct (sc_indents s) as [|i r]; [reflexivity|]. unfold bind at 1, put at 1.
  destruct (in_needs_block_end i); reflexivity.
Qed.
Lemma unroll_go_unr fuel col : forall (s : bst),
  match unr fuel col (sc_indent s) (sc_indents s) (sc_mark s) with
  | Some (i, l, b) => unroll_indent_go fuel col s = Ok (tt, set_tokens (sc_tokens s ++ b) (set_indent i l s))
  | None => nerr (unroll_indent_go fuel col s)
  end.
Proof.
  induction fuel as [|fuel IH]; intros s; [exact I|]. rewrite ugo_S. cbn [unr].
  destruct (col <? sc_indent s)%Z.
  - destruct (sc_indents s) as [|i r] eqn:EI; [exact I|].
    destruct (in_needs_block_end i) eqn:EN.
    + specialize (IH (set_tokens (sc_tokens s ++ [(span_empty (sc_mark s), TBlockEnd)]) (set_indent (in_indent i) r s))).
      cbn [sc_indent sc_indents sc_mark sc_tokens set_tokens set_indent set_struct upd] in IH.
      destruct (unr fuel col (in_indent i) r (sc_mark s)) as [[[a b] c]|]; [|exact IH].
      rewrite IH. destruct s. cbn. rewrite <- app_assoc. reflexivity.
    + specialize (IH (set_indent (in_indent i) r s)).
      cbn [sc_indent sc_indents sc_mark sc_tokens set_tokens set_indent set_struct upd] in IH.
      destruct (unr fuel col (in_indent i) r (sc_mark s)) as [[[a b] c]|]; [|exact IH].
      rewrite IH. destruct s. reflexivity.
  - destruct s. cbn. rewrite app_nil_r. reflexivity.
Qed.
Definition unrF (col : Z) (s : bst) : option (Z * list indent_rec * list token) :=
  if (0 <? sc_flow_level s)%N then Some (sc_indent s, sc_indents s, [])
  else unr (S (length (sc_indents s))) col (sc_indent s) (sc_indents s) (sc_mark s).
Lemma unroll_unrF col (s : bst) :
  match unrF col s with
  | Some (i, l, b) => unroll_indent col s = Ok (tt, set_tokens (sc_tokens s ++ b) (set_indent i l s))
  | None => nerr (unroll_indent col s)
  end.
Proof.
  assert (E : unroll_indent col s = if (0 <? sc_flow_level s)%N then Ok (tt, s) else unroll_indent_go (S (length (sc_indents s))) col s).
  { unfold unroll_indent. unfold bind at 1, get at 1. destruct (0 <? sc_flow_level s)%N; reflexivity. }
  rewrite E. unfold unrF. destruct (0 <? sc_flow_level s)%N.
  - destruct s. cbn. rewrite app_nil_r. reflexivity.
  - apply unroll_go_unr.
Qed.
Lemma unr_block_ends fuel col mk : forall ind inds a b c, unr fuel col ind inds mk = Some (a, b, c) ->
  Forall (fun t => snd t = TBlockEnd) c.
Proof.
  induction fuel as [|fuel IH]; intros ind inds a b c; cbn [unr]; [discriminate|].
  destruct (col <? ind)%Z; [|intros H; inversion H; constructor].
  destruct inds as [|i r]; [discriminate|].
  destruct (unr fuel col (in_indent i) r mk) as [[[a' b'] c']|] eqn:E; [|discriminate].
  intros H; inversion H; subst. apply Forall_app. split; [|eapply IH; eauto].
  destruct (in_needs_block_end i); constructor; [reflexivity|constructor].
Qed.

(* 1. The end step *)
Section Top.
Variable d : list chr.
Local Notation bwp := (swp d).

Definition block_ends (l : list token) : Prop := Forall (fun t => snd t = TBlockEnd) l.

Definition end_post (v1 v2 t1 t2 : bst) : Prop :=
  exists b sps spd,
    sc_tokens t1 = sc_tokens v1 ++ b ++ [(sps, TStreamEnd)] /\ sc_tokens t2 = sc_tokens v2 ++ b ++ [(spd, TDocumentEnd)]
    /\ block_ends b /\ allclr (sc_sks t1)
    /\ sc_tokens_parsed t1 = sc_tokens_parsed v1 /\ sc_tokens_parsed t2 = sc_tokens_parsed v2
    /\ sc_token_available t1 = sc_token_available v1 /\ sc_token_available t2 = sc_token_available v2
    /\ sc_stream_end t1 = sc_stream_end v1 /\ sc_stream_end t2 = sc_stream_end v2
    /\ sc_flow_level t1 = sc_flow_level v1 /\ sc_flow_level t2 = sc_flow_level v2
    /\ rm t2 = 10%N :: d.

Lemma existsb_kill l : existsb (fun k => sk_required k && sk_possible k) l = false ->
  forall k, In k l -> sk_possible k && sk_required k = false.
Proof.
  intros H k Hk. destruct (sk_possible k && sk_required k) eqn:E; [|reflexivity].
  assert (X : existsb (fun k => sk_required k && sk_possible k) l = true).
  { apply existsb_exists. exists k. split; [exact Hk|]. rewrite andb_comm. exact E. }
  congruence.
Qed.
Lemma allclr_map_kill (l : list simple_key) :
  allclr (map (fun k => {| sk_possible := false; sk_required := sk_required k; sk_token_number := sk_token_number k; sk_mark := sk_mark k |}) l).
Proof. induction l; constructor; [reflexivity|assumption]. Qed.

Lemma dispatch_at_marker F (v : bst) :
  rn v 0 = 46%N -> rn v 1 = 46%N -> rn v 2 = 46%N -> rn v 3 = 10%N -> m_col (sc_mark v) = 0%N -> 4 <= lk v ->
  fnt_dispatch F v =
  bind (fetch_document_indicator sops TDocumentEnd) (fun _ => bind (skip_ws_to_eol sops F SkipYes) (fun _ =>
    bind (next_is sops is_breakz) (fun b => if b then ret tt else bind mark (fun m => fail 101%N m)))) v.
Proof.
  intros H0 H1 H2 H3 HC HL. unfold fnt_dispatch. unfold bind at 1, get at 1. unfold bind at 1. rewrite peek_ok.
  rewrite HC, H0. change (0 =? 0)%N with true. change (46 =? 37)%N with false. cbv iota.
  assert (L4 : Nat.ltb (lk v) 4 = false) by (apply Nat.ltb_ge; exact HL).
  unfold bind at 1. rewrite docstart_eval, L4.
  assert (DS : docstart_val v = false) by (unfold docstart_val, n3are; rewrite H0; reflexivity).
  assert (DE : docend_val v = true) by (unfold docend_val, n3are; rewrite H0, H1, H2, H3; reflexivity).
  rewrite DS. cbn [andb negb]. unfold bind at 1. rewrite docend_eval, L4, DE. reflexivity.
Qed.
Lemma ws_at_break f stb (s : bst) : rn s 0 = 10%N ->
  skip_ws_to_eol sops (S f) stb s = Ok ((false, false), set_mark (adv 0 (sc_mark s)) (bump 1 s)).
Proof.
  intros H. unfold skip_ws_to_eol. cbn [in_skip_ws_to_eol]. unfold bind at 1. unfold bind at 1. rewrite look_ch_ok.
  change (rn (bump 1 s) 0) with (rn s 0). rewrite H.
  change (10 =? 32)%N with false. change (10 =? 9)%N with false. change (10 =? 35)%N with false. cbn [andb]. reflexivity.
Qed.

Lemma skip_n_nb_ok n (s : bst) :
  skip_n_non_blank sops n s = Ok (tt, set_lws false (set_mark (adv (N.of_nat n) (sc_mark s)) (dropn n s))).
Proof. reflexivity. Qed.
Lemma next_is_ok p (s : bst) : next_is sops p s = Ok (p (rn s 0), s).
Proof. reflexivity. Qed.

Lemma end_step F2 (v1 v2 : bst) : SH d v1 v2 -> rm v1 = [] -> 4 <= lk v1 ->
  match fetch_stream_end v1 with
  | Ok (_, t1) => match fnt_dispatch F2 v2 with
                  | Ok (_, t2) => end_post v1 v2 t1 t2
                  | Err _ _ => False
                  | _ => True
                  end
  | _ => True
  end.
Proof.
  intros H HE HL.
  destruct (sh_end H HE) as [HC HW].
  pose proof (SH_rm H) as R2. pose proof (SH_lk H) as L2. pose proof (rst_fields _ _ (sh_rst H)) as HF. clear H.
  destruct v1 as [[ch1 k1] [mi ml mc] tk1 ss1 se1 adj1 ska1 sks1 ind1 inds1 fl1 tp1 ta1 lws1 ifm1].
  destruct v2 as [[ch2 k2] [mi2 ml2 mc2] tk2 ss2 se2 adj2 ska2 sks2 ind2 inds2 fl2 tp2 ta2 lws2 ifm2].
  unfold rm, lk in *. cbn [sc_in sc_mark sc_tokens sc_stream_start sc_stream_end sc_adjacent sc_ska sc_sks sc_indent
    sc_indents sc_flow_level sc_tokens_parsed sc_token_available sc_lws sc_ifms si_chars si_look m_col] in *.
  destruct HF as (EM & E1 & E2 & E3 & E4 & E5 & E6 & E7 & E8 & E9 & E10 & E11 & E12).
  inversion EM; subst. cbn [app].
  Ltac mred := cbv [fetch_stream_end fetch_document_indicator bind modify get put ret fail panic remove_simple_key
    disallow_simple_key mark gets push_tok
    set_sks set_ska set_tokens set_mark set_in set_lws set_flags set_struct set_indent upd sc_in sc_mark sc_sks sc_tokens sc_stream_start
    sc_stream_end sc_adjacent sc_ska sc_indent sc_indents sc_flow_level sc_tokens_parsed sc_token_available sc_lws sc_ifms
    m_col m_index m_line].
  mred. change (0 =? 0)%N with true. cbv iota.
  match goal with |- context [existsb ?f sks2] => destruct (existsb f sks2) eqn:EX end; [exact I|].
  match goal with |- context [unroll_indent (-1) ?w] => pose proof (unroll_unrF (-1) w) as U1 end.
  unfold unrF in U1. cbn [sc_flow_level sc_indent sc_indents sc_mark sc_tokens] in U1.
  remember (if (0 <? fl2)%N then Some (ind2, inds2, []) else unr (S (length inds2)) (-1) ind2 inds2 {| m_index := mi2; m_line := ml2; m_col := 0 |}) as UR eqn:EUR.
  destruct UR as [[[ui ul] ub]|].
  2:{ match goal with |- context [unroll_indent (-1) ?w] => destruct (unroll_indent (-1) w) as [[? ?]|? ?|?|] end; try exact I; destruct U1. }
  rewrite U1. mred. cbv beta iota.
  destruct sks2 as [|k r]; [exact I|]. cbn [map]. cbn [andb].
  (* side 2 *)
  rewrite dispatch_at_marker; try reflexivity; [|exact HL].
  match goal with |- context [bind (fetch_document_indicator sops TDocumentEnd) ?f ?w] =>
    pose proof (unroll_unrF (-1) w) as U2 end.
  unfold unrF in U2. cbn [sc_flow_level sc_indent sc_indents sc_mark sc_tokens] in U2. rewrite <- EUR in U2.
  unfold bind at 1. unfold fetch_document_indicator. unfold bind at 1. rewrite U2.
  assert (EK : sk_possible k && sk_required k = false) by (apply (existsb_kill _ EX); left; reflexivity).
  mred. cbv beta iota. rewrite EK. clear U1 U2. cbn [sk_possible sk_required andb].
  rewrite skip_n_nb_ok. cbv beta iota.
  unfold dropn, rm, lk. mred. cbv beta iota. cbn [skipn TX].
  destruct F2 as [|f2]; [exact I|].
  rewrite ws_at_break by reflexivity. cbv beta iota. rewrite next_is_ok.
  unfold bump, rm, lk. mred. cbv beta iota. unfold rn, rm. mred. cbn [si_chars si_look]. unfold TX. cbn [nth].
  change (is_breakz 10%N) with true. cbv beta iota.
  unfold end_post, rm. cbn [sc_in sc_tokens sc_sks sc_tokens_parsed sc_token_available sc_stream_end sc_flow_level si_chars].
  eexists ub, _, _. rewrite <- !app_assoc.
  split; [reflexivity|]. split; [reflexivity|]. split.
  { unfold block_ends. destruct (0 <? fl2)%N; [inversion EUR; constructor|]. symmetry in EUR. eapply unr_block_ends; exact EUR. }
  split; [constructor; [reflexivity|apply allclr_map_kill]|].
  repeat (split; [reflexivity|]). reflexivity.
Qed.

(* 2. Draining a queue when no simple key is possible (one-sided, used on both sides) *)
Definition same_but (s s' : bst) : Prop :=
  sc_in s' = sc_in s /\ sc_mark s' = sc_mark s /\ sc_tokens s' = sc_tokens s /\ sc_stream_start s' = sc_stream_start s
  /\ sc_stream_end s' = sc_stream_end s /\ sc_indent s' = sc_indent s /\ sc_indents s' = sc_indents s
  /\ sc_flow_level s' = sc_flow_level s /\ sc_tokens_parsed s' = sc_tokens_parsed s /\ sc_ifms s' = sc_ifms s
  /\ allclr (sc_sks s') /\ length (sc_sks s') = length (sc_sks s).

Lemma allclr_stale_false (f : simple_key -> bool) (g : simple_key -> bool) l : allclr l ->
  existsb (fun k => sk_possible k && f k && g k) l = false.
Proof. intros H. induction H as [|k l Hk _ IH]; cbn [existsb]; [reflexivity|]. rewrite Hk, IH. reflexivity. Qed.
Lemma allclr_map_stale (f : simple_key -> bool) l : allclr l ->
  allclr (map (fun k => if f k then {| sk_possible := false; sk_required := sk_required k; sk_token_number := sk_token_number k; sk_mark := sk_mark k |} else k) l).
Proof. intros H. induction H as [|k l Hk _ IH]; cbn [map]; constructor; [destruct (f k); [reflexivity|exact Hk]|exact IH]. Qed.

Lemma stale_clear (s : bst) : allclr (sc_sks s) ->
  exists s', stale_simple_keys s = Ok (tt, s') /\ same_but s s' /\ sc_token_available s' = sc_token_available s.
Proof.
  intros HC. unfold stale_simple_keys. unfold bind, get. cbv zeta.
  match goal with |- context [existsb ?f (sc_sks s)] => assert (E : existsb f (sc_sks s) = false) end.
  { clear -HC. induction HC as [|k l Hk _ IH]; cbn [existsb]; [reflexivity|]. rewrite Hk, IH. reflexivity. }
  rewrite E. unfold put. eexists. split; [reflexivity|]. split; [|reflexivity].
  unfold same_but. cbn [sc_in sc_mark sc_tokens sc_stream_start sc_stream_end sc_indent sc_indents sc_flow_level
    sc_tokens_parsed sc_ifms sc_sks set_sks set_struct]. repeat split; try reflexivity.
  - apply allclr_map_stale. exact HC.
  - apply map_length.
Qed.

Lemma fmt_clear F n (s : bst) : allclr (sc_sks s) -> sc_tokens s <> [] ->
  exists s', fetch_more_tokens sops F (S n) s = Ok (tt, s') /\ same_but s s' /\ sc_token_available s' = true.
Proof.
  intros HC HT. cbn [fetch_more_tokens]. unfold bind at 1, get at 1.
  destruct (sc_tokens s) as [|t r] eqn:ET; [contradiction|].
  destruct (stale_clear s HC) as (s1 & E1 & SB & TA). unfold bind at 1. unfold bind at 1. rewrite E1.
  unfold bind at 1, get at 1. unfold ret.
  destruct SB as (B1 & B2 & B3 & B4 & B5 & B6 & B7 & B8 & B9 & B10 & B11 & B12).
  rewrite (allclr_existsb _ _ B11). unfold modify. eexists. split; [reflexivity|]. split; [|reflexivity].
  unfold same_but. cbn [sc_in sc_mark sc_tokens sc_stream_start sc_stream_end sc_indent sc_indents sc_flow_level
    sc_tokens_parsed sc_ifms sc_sks set_ta set_flags]. repeat split; assumption.
Qed.

(* one token handed out from a state in which no key is possible *)
Definition popped (t : token) (r : list token) (s s' : bst) : Prop :=
  sc_in s' = sc_in s /\ sc_mark s' = sc_mark s /\ sc_tokens s' = r /\ sc_stream_start s' = sc_stream_start s
  /\ sc_indent s' = sc_indent s /\ sc_indents s' = sc_indents s
  /\ sc_flow_level s' = sc_flow_level s /\ sc_tokens_parsed s' = (sc_tokens_parsed s + 1)%N /\ sc_ifms s' = sc_ifms s
  /\ allclr (sc_sks s') /\ length (sc_sks s') = length (sc_sks s) /\ sc_token_available s' = false
  /\ sc_stream_end s' = is_se (snd t).
Lemma pop_clear f (s : bst) t r : allclr (sc_sks s) -> sc_stream_end s = false -> sc_tokens s = t :: r ->
  exists s', next_token sops (S f) s = Ok (Some t, s') /\ popped t r s s'.
Proof.
  intros HC HE HT. unfold next_token. unfold bind at 1, get at 1. rewrite HE.
  assert (HM : exists s1, (if sc_token_available s then ret tt else fetch_more_tokens sops (S f) (S f)) s = Ok (tt, s1)
                          /\ same_but s s1).
  { destruct (sc_token_available s).
    - exists s. split; [reflexivity|]. unfold same_but. repeat split; auto.
    - destruct (fmt_clear (S f) f s HC ltac:(rewrite HT; discriminate)) as (s1 & E1 & SB & _). exists s1. auto. }
  destruct HM as (s1 & E1 & SB). unfold bind at 1. rewrite E1.
  destruct SB as (B1 & B2 & B3 & B4 & B5 & B6 & B7 & B8 & B9 & B10 & B11 & B12).
  unfold bind at 1, get at 1. rewrite B3, HT. unfold bind at 1, put at 1.
  assert (HS : forall (x : bst), sc_stream_end x = false ->
     exists x', (bind (match snd t with TStreamEnd => modify (set_se true) | _ => ret tt end) (fun _ => ret (Some t))) x = Ok (Some t, x')
                /\ sc_stream_end x' = is_se (snd t) /\ ers (set_se false x') = ers (set_se false x) /\ sc_in x' = sc_in x).
  { intros x Hx. destruct (snd t); (eexists; split; [reflexivity|]); cbn [is_se]; (split; [first [exact Hx|reflexivity]|split; reflexivity]). }
  match goal with |- context [bind _ _ ?x] => destruct (HS x) as (x' & EX & SE' & FR & IN') end.
  { cbn [sc_stream_end set_tp set_ta set_tokens set_struct set_flags upd]. rewrite B5. exact HE. }
  exists x'. split; [exact EX|].
  apply ers_fields in FR. cbn [sc_mark sc_tokens sc_stream_start sc_stream_end sc_adjacent sc_ska sc_sks sc_indent sc_indents
    sc_flow_level sc_tokens_parsed sc_token_available sc_lws sc_ifms set_se set_tp set_ta set_tokens set_struct set_flags upd] in FR.
  destruct FR as (F1 & F2 & F3 & _ & F5 & F6 & F7 & F8 & F9 & F10 & F11 & F12 & F13 & F14).
  unfold popped. rewrite IN', F1, F2, F3, F7, F8, F9, F10, F11, F12, F14. cbn [sc_in set_tp set_ta set_tokens set_struct set_flags upd].
  repeat split; try assumption; try reflexivity; congruence.
Qed.

(* the state in which a scan ends *)
Fixpoint scan_last (F n : nat) (s : bst) : bst :=
  match n with
  | O => s
  | S n => match next_token sops F s with
           | Ok (Some _, s') => scan_last F n s'
           | Ok (None, s') => s'
           | _ => s
           end
  end.
(* k tokens delivered (the same function as ScanShiftTop.deliver) *)
Fixpoint deliver (F k : nat) (s : bst) : option (list token * bst) :=
  match k with
  | O => Some ([], s)
  | S k => match next_token sops F s with
           | Ok (Some t, s') => match deliver F k s' with Some (l, u) => Some (t :: l, u) | None => None end
           | _ => None
           end
  end.

Lemma drain1 f : forall q (s : bst) x acc n toks,
  allclr (sc_sks s) -> sc_stream_end s = false -> sc_tokens s = q ++ [x] -> snd x = TStreamEnd ->
  Forall tnse q -> scan_all sops (S f) n s acc = (toks, SEnded) ->
  toks = rev acc ++ q ++ [x] /\ sc_flow_level (scan_last (S f) n s) = sc_flow_level s.
Proof.
  induction q as [|a q IH]; intros s x acc n toks HC HE HT HX HQ HS.
  - destruct n as [|n]; [discriminate HS|]. cbn [scan_all scan_last] in *.
    destruct (pop_clear f s x [] HC HE HT) as (s' & E & P). rewrite E in *.
    destruct P as (_ & _ & _ & _ & _ & _ & PF & _ & _ & _ & _ & _ & PE). rewrite HX in PE. cbn [is_se] in PE.
    destruct n as [|n]; [discriminate HS|]. cbn [scan_all scan_last] in *. rewrite (next_token_ended sops _ _ PE) in *.
    inversion HS; subst. cbn [rev app]. split; [reflexivity|exact PF].
  - destruct n as [|n]; [discriminate HS|]. cbn [scan_all scan_last] in *.
    destruct (pop_clear f s a (q ++ [x]) HC HE HT) as (s' & E & P). rewrite E in *.
    destruct P as (_ & _ & PT & _ & _ & _ & PF & _ & _ & PC & _ & _ & PE).
    inversion HQ as [|a' q' Ha Hq]; subst. unfold tnse in Ha. rewrite Ha in PE.
    destruct (IH s' x (a :: acc) n toks PC PE PT HX Hq HS) as [ET EF]. split; [|rewrite EF; exact PF].
    rewrite ET. cbn [rev]. rewrite <- app_assoc. reflexivity.
Qed.

Lemma drain2 f : forall q (s : bst),
  allclr (sc_sks s) -> sc_stream_end s = false -> sc_tokens s = q -> Forall tnse q ->
  exists sm, deliver (S f) (length q) s = Some (q, sm)
             /\ sc_in sm = sc_in s /\ sc_stream_start sm = sc_stream_start s /\ sc_indent sm = sc_indent s
             /\ sc_indents sm = sc_indents s /\ sc_flow_level sm = sc_flow_level s /\ sc_ifms sm = sc_ifms s
             /\ allclr (sc_sks sm) /\ length (sc_sks sm) = length (sc_sks s)
             /\ sc_tokens sm = [] /\ sc_stream_end sm = false
             /\ sc_tokens_parsed sm = (sc_tokens_parsed s + N.of_nat (length q))%N
             /\ (q <> [] -> sc_token_available sm = false).
Proof.
  induction q as [|a q IH]; intros s HC HE HT HQ.
  - exists s. cbn [deliver length]. repeat split; auto; [lia|intros X; contradiction].
  - destruct (pop_clear f s a q HC HE HT) as (s' & E & P).
    destruct P as (P1 & P2 & P3 & P4 & P5 & P6 & P7 & P8 & P9 & P10 & P11 & P12 & P13).
    inversion HQ as [|a' q' Ha Hq]; subst. unfold tnse in Ha. rewrite Ha in P13.
    destruct (IH s' P10 P13 eq_refl Hq) as (sm & ED & D1 & D2 & D3 & D4 & D5 & D6 & D7 & D8 & D9 & D10 & D11 & D12).
    exists sm. cbn [deliver length]. rewrite E, ED. repeat split; try congruence.
    + rewrite D11, P8. lia.
    + intros _. destruct (sc_tokens s') as [|b q'] eqn:EQ; [|apply D12; discriminate].
      cbn [deliver] in ED. inversion ED; subst. exact P12.
Qed.

Lemma deliver_fuel F k : forall (s : bst) acc n pre sm, deliver F k s = Some (pre, sm) -> n < k ->
  snd (scan_all sops F n s acc) = SFuel.
Proof.
  induction k as [|k IH]; intros s acc n pre sm HD Hn; [lia|].
  destruct n as [|n]; [reflexivity|]. cbn [deliver] in HD. cbn [scan_all].
  destruct (next_token sops F s) as [[[t|] s']| | |]; try discriminate.
  destruct (deliver F k s') as [[l u]|] eqn:ED; try discriminate. eapply IH; [exact ED|lia].
Qed.

(* 3. fetch_next_token: in lockstep, or the end step *)
Definition Hdisp := dispatch_ok d (ScanPrefixDir.scan_directive_ok d) (ScanPrefixDir.scan_tag_ok d)
  (ScanPrefixFlow.scan_flow_scalar_ok d) (ScanPrefixPlain.scan_plain_scalar_ok d) (ScanPrefixBlock.scan_block_scalar_ok d).

Lemma Keeps_dispatch F : Keeps (fnt_dispatch F).
Proof.
  unfold fnt_dispatch. kps.
  (* what is left: the fetch function of each arm *)
  2, 3: apply Keeps_fetch_document_indicator; reflexivity.
  all: auto using Keeps_fetch_directive, Keeps_fetch_flow_collection_start, Keeps_fetch_flow_collection_end,
         Keeps_fetch_flow_entry, Keeps_fetch_block_entry, Keeps_fetch_key, Keeps_fetch_value, Keeps_fetch_flow_value,
         Keeps_fetch_anchor, Keeps_fetch_tag, Keeps_fetch_block_scalar, Keeps_fetch_flow_scalar, Keeps_fetch_plain_scalar.
Qed.

Lemma bwp_keeps_l {A1 A2} (m1 : BM A1) (m2 : BM A2) (Q : A1 -> bst -> A2 -> bst -> Prop) s1 s2 :
  Keeps m1 -> bwp m1 m2 Q s1 s2 -> bwp m1 m2 (fun a1 t1 a2 t2 => Q a1 t1 a2 t2 /\ kp s1 t1) s1 s2.
Proof.
  intros HK H. unfold swp in *. destruct (m1 s1) as [[a1 t1]|? ?|?|] eqn:E; auto.
  destruct (m2 s2) as [[a2 t2]|? ?|?|]; auto. split; [exact H|]. eapply HK; exact E.
Qed.
Lemma kp_ers (s t : bst) : ers t = ers s -> kp s t.
Proof. intros E. apply ers_fields in E. apply kp_same; tauto. Qed.

Definition fnt_post (s1 : bst) : unit -> bst -> unit -> bst -> Prop := fun _ t1 _ t2 =>
  (SH d t1 t2 /\ kp s1 t1) \/ (exists v1 v2, SH d v1 v2 /\ kp s1 v1 /\ rm v1 = [] /\ end_post v1 v2 t1 t2).

Lemma fnt_rel F1 F2 s1 s2 : SH d s1 s2 ->
  bwp (fetch_next_token sops F1) (fetch_next_token sops F2) (fnt_post s1) s1 s2.
Proof.
  intros H. rewrite !fetch_next_token_unfold.
  apply bwp_bind. apply (bwp_look d); [exact H|]. intros u1 u2 HU RU EU1 _ _ _.
  pose proof (kp_ers _ _ EU1) as KU.
  apply bwp_bind. apply bwp_get. cbv beta. sh_sync HU.
  destruct (negb (sc_stream_start u1)).
  { eapply bwp_mono; [apply bwp_keeps_l; [apply Keeps_fetch_stream_start|apply fetch_stream_start_ok; exact HU]|].
    intros a1 t1 a2 t2 [[_ HT] KT]. left. split; [exact HT|eapply kp_trans; eassumption]. }
  apply bwp_bind. eapply bwp_mono; [apply bwp_keeps_l; [apply Keeps_of_Fr; apply Fr_skip_to_next_token|apply skip_to_next_token_ok; exact HU]|].
  intros a1 v1 a2 v2 [(_ & HV & BV) KV]. cbv beta.
  apply bwp_bind. eapply bwp_mono; [apply bwp_keeps_l; [apply Keeps_stale_simple_keys|apply (bwp_stale_simple_keys d (fun _ t1 _ t2 => SH d t1 t2 /\ rm t1 = rm v1)); [exact HV|]]|].
  { intros t1 t2 HT RT. exact (conj HT RT). }
  intros b1' w1 b2 w2 [[HW RW] KW]. cbv beta.
  apply bwp_bind. apply bwp_mark; [exact HW|]. intros HM. rewrite <- (SH_mark HW).
  apply bwp_bind. eapply bwp_mono; [apply bwp_keeps_l; [apply Keeps_unroll_indent|apply (bwp_unroll_indent d _ (fun _ t1 _ t2 => SH d t1 t2 /\ rm t1 = rm w1)); [exact HW|]]|].
  { intros t1 t2 HT RT. exact (conj HT RT). }
  intros c1 x1 c2 x2 [[HX RX] KX]. cbv beta.
  apply bwp_bind. apply (bwp_look d); [exact HX|]. intros y1 y2 HY RY EY1 _ LY _.
  pose proof (kp_ers _ _ EY1) as KY.
  assert (KALL : kp s1 y1).
  { eapply kp_trans; [exact KU|]. eapply kp_trans; [exact KV|]. eapply kp_trans; [exact KW|]. eapply kp_trans; [exact KX|exact KY]. }
  apply bwp_bind. apply (bwp_next_is_raw d); [exact HY|].
  destruct (N.eq_dec (rn y1 0) 0) as [E0|N0].
  - rewrite E0. change (is_z 0%N) with true. change (is_z (b1 0%N)) with false. cbv iota.
    apply bwp_intro. pose proof (end_step F2 y1 y2 HY (SH_at_end HY E0) LY) as HE.
    destruct (fetch_stream_end y1) as [[[] t1]|? ?|?|]; try exact I.
    destruct (fnt_dispatch F2 y2) as [[[] t2]|? ?|?|]; try exact I; [|exact HE].
    right. exists y1, y2. split; [exact HY|]. split; [exact KALL|]. split; [exact (SH_at_end HY E0)|exact HE].
  - rewrite (b1_other _ N0).
    assert (EZ : is_z (rn y1 0) = false) by (unfold is_z; apply N.eqb_neq; exact N0). rewrite EZ.
    assert (RC : rn y1 0 = rn v1 0) by (unfold rn; rewrite RY, RX, RW; reflexivity).
    assert (NB : nbz (rn y1 0)).
    { apply (SH_nbz_of d _ _ HY); [apply SH_nonempty; exact N0|rewrite RC; exact BV]. }
    eapply bwp_mono; [apply bwp_keeps_l; [apply Keeps_dispatch|apply Hdisp; [exact HY|exact NB|exact LY]]|].
    intros a1' t1 a2' t2 [[_ HT] KT]. left. split; [exact HT|eapply kp_trans; eassumption].
Qed.

(* 4. fetch_more_tokens *)
Definition need_m (s : bst) : BM bool :=
  match sc_tokens s with
  | [] => ret true
  | _ => bind stale_simple_keys (fun _ => bind get (fun s =>
           ret (existsb (fun k => sk_possible k && (sk_token_number k =? sc_tokens_parsed s)%N) (sc_sks s))))
  end.
Lemma fmt_S F n (s : bst) :
  fetch_more_tokens sops F (S n) s =
  bind (need_m s) (fun need => if need then bind (fetch_next_token sops F) (fun _ => fetch_more_tokens sops F n)
                               else modify (set_ta true)) s.
Proof. reflexivity. Qed.
Lemma bind_inv {A B} (m : BM A) (f : A -> BM B) s b t : bind m f s = Ok (b, t) ->
  exists a s', m s = Ok (a, s') /\ f a s' = Ok (b, t).
Proof. unfold bind. destruct (m s) as [[a s']| | |]; try discriminate. eauto. Qed.
Lemma bind_nerr {A B} (m : BM A) (f : A -> BM B) s : nerr (m s) -> nerr (bind m f s).
Proof. unfold bind. destruct (m s) as [[a s']| | |]; auto; intros []. Qed.

Lemma need_rel s1 s2 : SH d s1 s2 ->
  bwp (need_m s1) (need_m s2) (fun b1 t1 b2 t2 => b1 = b2 /\ SH d t1 t2 /\ kp s1 t1) s1 s2.
Proof.
  intros H. unfold need_m. pose proof (sh_tokens H) as HT.
  destruct HT as [|a b l1 l2 _ _]; [apply bwp_ret; split; [reflexivity|split; [exact H|apply kp_refl]]|].
  apply bwp_bind. eapply bwp_mono; [apply bwp_keeps_l; [apply Keeps_stale_simple_keys|
    apply (bwp_stale_simple_keys d (fun _ t1 _ t2 => SH d t1 t2 /\ rm t1 = rm s1)); [exact H|]]|].
  { intros t1 t2 HT' RT. exact (conj HT' RT). }
  intros x1 w1 x2 w2 [[HW _] KW]. cbv beta.
  apply bwp_bind. apply bwp_get. cbv beta. sh_sync HW. apply bwp_ret. split; [reflexivity|split; [exact HW|exact KW]].
Qed.

Inductive fmt_res (F2 : nat) (s1 t1 : bst) (o2 : outcome (unit * bst)) : Prop :=
| FR_lock t2 : o2 = Ok (tt, t2) -> SH d t1 t2 -> kp s1 t1 -> fmt_res F2 s1 t1 o2
| FR_end v1 v2 u1 u2 n2' w2 : SH d v1 v2 -> kp s1 v1 -> rm v1 = [] -> end_post v1 v2 u1 u2 -> same_but u1 t1 ->
    sc_token_available t1 = true -> o2 = fetch_more_tokens sops F2 n2' u2 ->
    fetch_next_token sops F2 w2 = Ok (tt, u2) -> @SkInv strin w2 -> fmt_res F2 s1 t1 o2
| FR_nerr : nerr o2 -> fmt_res F2 s1 t1 o2.

Lemma fmt_res_kp F2 s0 s1 t1 o2 : kp s0 s1 -> fmt_res F2 s1 t1 o2 -> fmt_res F2 s0 t1 o2.
Proof.
  intros K [t2 E HT KT|v1 v2 u1 u2 n2' w2 HV KV RV HE SB TA E EW SW|HN].
  - eapply FR_lock; eauto. eapply kp_trans; eassumption.
  - eapply FR_end; eauto. eapply kp_trans; eassumption.
  - apply FR_nerr. exact HN.
Qed.

Lemma need_SkInv (s w : bst) b : need_m s s = Ok (b, w) -> @SkInv strin s -> @SkInv strin w.
Proof.
  unfold need_m. destruct (sc_tokens s); [intros E HS; inversion E; subst; exact HS|].
  intros E HS. apply bind_inv in E. destruct E as ([] & y & ES & E). unfold bind, get, ret in E. inversion E; subst.
  eapply (Tr_stale_SkInv); eauto.
Qed.
Lemma fmt_rel F1 F2 : forall n1 n2 s1 s2 t1, SH d s1 s2 -> @SkInv strin s2 -> fetch_more_tokens sops F1 n1 s1 = Ok (tt, t1) ->
  fmt_res F2 s1 t1 (fetch_more_tokens sops F2 n2 s2).
Proof.
  induction n1 as [|n1 IH]; intros n2 s1 s2 t1 H HS2 HF; [discriminate HF|].
  destruct n2 as [|n2]; [apply FR_nerr; exact I|].
  rewrite fmt_S in HF. rewrite fmt_S.
  apply bind_inv in HF. destruct HF as (b1' & w1 & EN1 & HK1).
  pose proof (bwp_elim d _ _ _ _ _ (need_rel s1 s2 H)) as HN. rewrite EN1 in HN.
  destruct (need_m s2 s2) as [[b2 w2]|e k|p|] eqn:EN2; [|destruct HN|apply FR_nerr; apply bind_nerr; rewrite EN2; exact I..].
  destruct HN as (<- & HW & KW). rewrite (bind_Ok _ _ _ _ _ EN2).
  pose proof (need_SkInv _ _ _ EN2 HS2) as HSW.
  apply (fmt_res_kp F2 s1 w1); [exact KW|].
  destruct b1'.
  - apply bind_inv in HK1. destruct HK1 as ([] & x1 & EF1 & HR1).
    pose proof (bwp_elim d _ _ _ _ _ (fnt_rel F1 F2 w1 w2 HW)) as HX. rewrite EF1 in HX.
    destruct (fetch_next_token sops F2 w2) as [[[] x2]|e k|p|] eqn:EF2; [|destruct HX|apply FR_nerr; apply bind_nerr; rewrite EF2; exact I..].
    rewrite (bind_Ok _ _ _ _ _ EF2).
    destruct HX as [[HXS KX]|(v1 & v2 & HV & KV & RV & HE)].
    + apply (fmt_res_kp F2 w1 x1); [exact KX|]. apply IH; [assumption| |assumption].
      eapply (fetch_next_token_SkInv sops F2); eauto.
    + destruct HE as (bb & sps & spd & T1 & T2 & BB & CL & REST).
      destruct n1 as [|n1]; [discriminate HR1|].
      destruct (fmt_clear F1 n1 x1 CL) as (s' & ES & SB & TA).
      { rewrite T1. intros X. apply app_eq_nil in X. destruct X as [_ X]. apply app_eq_nil in X. destruct X as [_ X]. discriminate X. }
      rewrite ES in HR1. inversion HR1; subst s'.
      eapply (FR_end F2 w1 t1 _ v1 v2 x1 x2 n2 w2); try eassumption; [|reflexivity].
      exists bb, sps, spd. split; [exact T1|]. split; [exact T2|]. split; [exact BB|]. split; [exact CL|exact REST].
  - unfold modify in HK1. inversion HK1; subst t1. eapply FR_lock; [reflexivity|apply SH_set_ta; exact HW|].
    apply kp_same; reflexivity.
Qed.

(* 5. next_token and the whole run *)
Definition pop_m : BM (option token) :=
  bind get (fun s =>
    match sc_tokens s with
    | [] => fail 104%N (sc_mark s)
    | t :: r => bind (put (set_tp (sc_tokens_parsed s + 1)%N (set_ta false (set_tokens r s)))) (fun _ =>
                bind (match snd t with TStreamEnd => modify (set_se true) | _ => ret tt end) (fun _ => ret (Some t)))
    end).
Lemma next_token_eq F (s : bst) : sc_stream_end s = false ->
  next_token sops F s = bind (if sc_token_available s then ret tt else fetch_more_tokens sops F F) (fun _ => pop_m) s.
Proof. intros H. unfold next_token. unfold bind at 1, get at 1. rewrite H. reflexivity. Qed.
Lemma next_token_ta F (s : bst) : sc_stream_end s = false -> sc_token_available s = true -> next_token sops F s = pop_m s.
Proof. intros H T. rewrite next_token_eq by exact H. rewrite T. reflexivity. Qed.
Lemma nse_match (k : tok) : is_se k = false ->
  (match k with TStreamEnd => modify (set_se true) | _ => @ret strin unit tt end) = ret tt.
Proof. destruct k; try reflexivity. discriminate. Qed.

Lemma pop_rel (t1 t2 u1 : bst) o1 : SH d t1 t2 -> NoSE t1 -> pop_m t1 = Ok (o1, u1) ->
  exists a b u2, o1 = Some a /\ pop_m t2 = Ok (Some b, u2) /\ TS d a b /\ SH d u1 u2 /\ NoSE u1
                 /\ sc_stream_end u1 = sc_stream_end t1 /\ tnse a.
Proof.
  intros H HN E. unfold pop_m in *. unfold bind at 1, get at 1 in E. unfold bind at 1, get at 1.
  pose proof (sh_tokens H) as HT. pose proof (SH_tokens_parsed H) as HP.
  destruct (sc_tokens t1) as [|a l1] eqn:ET1; [discriminate E|].
  destruct (sc_tokens t2) as [|b l2] eqn:ET2; [inversion HT|].
  inversion HT as [|? ? ? ? Hab Hl]; subst.
  assert (Ha : tnse a) by (apply HN; rewrite ET1; left; reflexivity).
  assert (Hb : is_se (snd b) = false) by (rewrite (TS_snd d _ _ Hab); exact Ha).
  unfold tnse in Ha. rewrite (nse_match _ Ha) in E. rewrite (nse_match _ Hb).
  unfold bind, put, ret in *. inversion E; subst. rewrite <- HP.
  exists a, b. eexists. split; [reflexivity|]. split; [reflexivity|]. split; [exact Hab|].
  split; [apply SH_set_tp; apply SH_set_ta; apply SH_set_tokens; assumption|].
  split; [intros x Hx; apply HN; rewrite ET1; right; exact Hx|]. split; [reflexivity|exact Ha].
Qed.

Definition proper (e : scan_end) : Prop := match e with SEnded | SError _ _ => True | _ => False end.
Definition LI (s1 s2 : bst) : Prop :=
  SH d s1 s2 /\ NoSE s1 /\ sc_stream_end s1 = false /\ @SkInv strin s1 /\ @SkInv strin s2.
(* the boundary state *)
Definition BND (sm : bst) : Prop :=
  marker_config sm /\ rm sm = 10%N :: d /\ sc_tokens sm = [] /\ sc_token_available sm = false
  /\ sc_stream_end sm = false /\ (1 <= sc_tokens_parsed sm)%N.

Lemma nerr_improper F n (s : bst) acc : nerr (next_token sops F s) -> ~ proper (snd (scan_all sops F (S n) s acc)).
Proof. cbn [scan_all]. destruct (next_token sops F s) as [[[t|] s']| | |]; cbn; auto. Qed.

Lemma block_ends_tnse b : block_ends b -> Forall tnse b.
Proof. intros H. eapply Forall_impl; [|exact H]. intros t E. unfold tnse. rewrite E. reflexivity. Qed.
Lemma TS_tnse l1 l2 : Forall2 (TS d) l1 l2 -> Forall tnse l1 -> Forall tnse l2.
Proof.
  induction 1 as [|a b l1 l2 Hab _ IH]; intros HF; [constructor|]. inversion HF; subst.
  constructor; [unfold tnse; rewrite (TS_snd d _ _ Hab); assumption|auto].
Qed.
Lemma NoSE_Forall (s : bst) : NoSE s -> Forall tnse (sc_tokens s).
Proof. intros H. apply Forall_forall. exact H. Qed.

Lemma end_run f1 f2 n1 (t1 v1 v2 x1 x2 w2 : bst) n2' acc1 toks :
  SH d v1 v2 -> NoSE v1 -> sc_stream_end v1 = false -> end_post v1 v2 x1 x2 -> same_but x1 t1 ->
  fetch_next_token sops (S f2) w2 = Ok (tt, x2) -> @SkInv strin w2 ->
  scan_all sops (S f1) n1 t1 acc1 = (toks, SEnded) -> sc_flow_level (scan_last (S f1) n1 t1) = 0%N ->
  exists l1 x, toks = rev acc1 ++ l1 ++ [x] /\ snd x = TStreamEnd /\
    match fetch_more_tokens sops (S f2) n2' x2 with
    | Ok (_, t2) => sc_token_available t2 = true /\ sc_stream_end t2 = false /\
        exists k l2 spd sm, deliver (S f2) (S k) t2 = Some (l2 ++ [(spd, TDocumentEnd)], sm) /\ Forall2 (TS d) l1 l2 /\ BND sm
    | Err _ _ => False
    | _ => True
    end.
Proof.
  intros HV NV EV (bb & sps & spd & T1 & T2 & BB & CL & TP1 & TP2 & TA1 & TA2 & SE1 & SE2 & FL1 & FL2 & RM2) SB EW SW HS HFL.
  destruct SB as (B1 & B2 & B3 & B4 & B5 & B6 & B7 & B8 & B9 & B10 & B11 & B12).
  assert (ET1 : sc_tokens t1 = (sc_tokens v1 ++ bb) ++ [(sps, TStreamEnd)]) by (rewrite B3, T1, app_assoc; reflexivity).
  assert (Q1 : Forall tnse (sc_tokens v1 ++ bb)) by (apply Forall_app; split; [apply NoSE_Forall; exact NV|apply block_ends_tnse; exact BB]).
  destruct (drain1 f1 _ t1 _ acc1 n1 toks B11 ltac:(congruence) ET1 eq_refl Q1 HS) as [ETK EFL].
  exists (sc_tokens v1 ++ bb), (sps, TStreamEnd). split; [exact ETK|]. split; [reflexivity|].
  assert (F2 : sc_flow_level x2 = 0%N).
  { rewrite FL2, <- (SH_flow_level HV), <- FL1, <- B8, <- EFL. exact HFL. }
  assert (ET2 : sc_tokens x2 = (sc_tokens v2 ++ bb) ++ [(spd, TDocumentEnd)]) by (rewrite T2, app_assoc; reflexivity).
  pose proof (fetch_next_token_marker sops (S f2) w2 tt x2 SW EW) as MP.
  destruct (MP F2) as [MC _]. { exists (sc_tokens v2 ++ bb), spd, TDocumentEnd. split; [exact ET2|reflexivity]. }
  pose proof MC as (M1 & M2 & M3 & M4 & M5 & kk & M6 & M7).
  assert (CL2 : allclr (sc_sks x2)) by (rewrite M6; constructor; [exact M7|constructor]).
  destruct n2' as [|n2']; [exact I|].
  destruct (fmt_clear (S f2) n2' x2 CL2) as (t2 & ES & SB2 & TA).
  { rewrite ET2. intros X. apply app_eq_nil in X. destruct X as [_ X]. discriminate X. }
  rewrite ES. destruct SB2 as (C1 & C2 & C3 & C4 & C5 & C6 & C7 & C8 & C9 & C10 & C11 & C12).
  assert (SE2' : sc_stream_end t2 = false) by (rewrite C5, SE2, <- (SH_stream_end HV); exact EV).
  split; [exact TA|]. split; [exact SE2'|].
  assert (Q2 : Forall tnse (sc_tokens t2)).
  { rewrite C3, ET2. apply Forall_app. split; [|constructor; [reflexivity|constructor]].
    apply Forall_app. split; [|apply block_ends_tnse; exact BB].
    eapply TS_tnse; [exact (sh_tokens HV)|apply NoSE_Forall; exact NV]. }
  destruct (drain2 f2 (sc_tokens t2) t2 C11 SE2' eq_refl Q2) as (sm & ED & D1 & D2 & D3 & D4 & D5 & D6 & D7 & D8 & D9 & D10 & D11 & D12).
  rewrite C3, ET2 in ED. rewrite app_length in ED. cbn [length] in ED. rewrite Nat.add_1_r in ED.
  exists (length (sc_tokens v2 ++ bb)), (sc_tokens v2 ++ bb), spd, sm. split; [exact ED|].
  split; [apply Forall2_app; [exact (sh_tokens HV)|apply TSs_refl]|].
  unfold BND. split.
  { unfold marker_config. rewrite D2, D3, D4, D5, D6, C4, C6, C7, C8, C10. repeat (split; [assumption|]).
    rewrite C12, M6 in D8. destruct (sc_sks sm) as [|k' [|k'' r']] eqn:EK; try discriminate D8.
    exists k'. split; [reflexivity|]. inversion D7; assumption. }
  split; [unfold rm; rewrite D1, C1; exact RM2|]. split; [exact D9|].
  split; [apply D12; rewrite C3, ET2; intros X; apply app_eq_nil in X; destruct X as [_ X]; discriminate X|].
  split; [exact D10|]. rewrite D11, C3, ET2, app_length. cbn [length]. lia.
Qed.

Theorem run_rel f1 f2 : forall n1 n2 (s1 s2 : bst) acc1 acc2 toks,
  LI s1 s2 -> scan_all sops (S f1) n1 s1 acc1 = (toks, SEnded) ->
  proper (snd (scan_all sops (S f2) n2 s2 acc2)) -> sc_flow_level (scan_last (S f1) n1 s1) = 0%N ->
  exists k l1 l2 x spd sm, toks = rev acc1 ++ l1 ++ [x] /\ snd x = TStreamEnd
    /\ deliver (S f2) (S k) s2 = Some (l2 ++ [(spd, TDocumentEnd)], sm) /\ Forall2 (TS d) l1 l2 /\ BND sm.
Proof.
  induction n1 as [|n1 IH]; intros n2 s1 s2 acc1 acc2 toks (HSH & NS & SE & SK1 & SK2) HS HP HFL; [discriminate HS|].
  destruct n2 as [|n2]; [destruct HP|].
  assert (SE2 : sc_stream_end s2 = false) by (rewrite <- (SH_stream_end HSH); exact SE).
  pose proof HS as HS0. pose proof HFL as HFL0.
  cbn [scan_all scan_last] in HS, HFL.
  destruct (next_token sops (S f1) s1) as [[[a|] u1]|e k|p|] eqn:E1; try discriminate HS.
  2:{ exfalso. destruct (next_token_none sops (S f1) s1 u1 E1) as [X _]. congruence. }
  pose proof E1 as E1o. rewrite next_token_eq in E1 by exact SE. apply bind_inv in E1. destruct E1 as ([] & t1 & EP1 & EPOP1).
  (* the common tail: both sides hand out a token in lockstep *)
  assert (TAIL : forall t2, SH d t1 t2 -> NoSE t1 -> sc_stream_end t1 = false ->
            (forall b u2, pop_m t2 = Ok (Some b, u2) -> next_token sops (S f2) s2 = Ok (Some b, u2)) ->
            exists k l1 l2 x spd sm, toks = rev acc1 ++ l1 ++ [x] /\ snd x = TStreamEnd
              /\ deliver (S f2) (S k) s2 = Some (l2 ++ [(spd, TDocumentEnd)], sm) /\ Forall2 (TS d) l1 l2 /\ BND sm).
  { intros t2 HT NT ST HN2.
    destruct (pop_rel t1 t2 u1 _ HT NT EPOP1) as (a' & b & u2 & EA & EPOP2 & HAB & HU & NU & SU & TA). inversion EA; subst a'.
    pose proof (HN2 _ _ EPOP2) as E2.
    assert (HLI : LI u1 u2).
    { split; [exact HU|]. split; [exact NU|]. split; [congruence|].
      split; [exact (next_token_SkInv sops (S f1) s1 _ u1 SK1 E1o)|exact (next_token_SkInv sops (S f2) s2 _ u2 SK2 E2)]. }
    cbn [scan_all] in HP. rewrite E2 in HP.
    destruct (IH n2 u1 u2 (a :: acc1) (b :: acc2) toks HLI HS HP HFL) as (k & l1 & l2 & x & spd & sm & ET & EX & ED & HF & HB).
    exists (S k), (a :: l1), (b :: l2), x, spd, sm. split; [rewrite ET; cbn [rev]; rewrite <- app_assoc; reflexivity|].
    split; [exact EX|]. split; [|split; [constructor; assumption|exact HB]].
    change (deliver (S f2) (S (S k)) s2) with
      (match next_token sops (S f2) s2 with
       | Ok (Some t, s') => match deliver (S f2) (S k) s' with Some (l, u) => Some (t :: l, u) | None => None end
       | _ => None end).
    rewrite E2, ED. reflexivity. }
  pose proof (SH_token_available HSH) as ETA.
  destruct (sc_token_available s1) eqn:TA1.
  - unfold ret in EP1. inversion EP1; subst t1. apply (TAIL s2 HSH NS SE).
    intros b u2 EPOP2. rewrite next_token_eq by exact SE2. rewrite <- ETA. exact EPOP2.
  - pose proof (fmt_rel (S f1) (S f2) (S f1) (S f2) s1 s2 t1 HSH SK2 EP1) as HR.
    assert (NX2 : next_token sops (S f2) s2 = bind (fetch_more_tokens sops (S f2) (S f2)) (fun _ => pop_m) s2).
    { rewrite next_token_eq by exact SE2. rewrite <- ETA. reflexivity. }
    destruct HR as [t2 EO HT KT|v1 v2 x1 x2 n2' w2 HV KV RV HE SB TA EO EW SW|HN].
    + apply (TAIL t2 HT); [eapply kp_NoSE; eassumption|destruct KT as [_ [X _]]; congruence|].
      intros b u2 EPOP2. rewrite NX2, (bind_Ok _ _ _ _ _ EO). exact EPOP2.
    + assert (SV : sc_stream_end v1 = false) by (destruct KV as [_ [X _]]; congruence).
      assert (ST1 : sc_stream_end t1 = false).
      { destruct SB as (_ & _ & _ & _ & B5 & _). destruct HE as (? & ? & ? & _ & _ & _ & _ & _ & _ & _ & _ & SE1 & _). congruence. }
      assert (HS' : scan_all sops (S f1) (S n1) t1 acc1 = (toks, SEnded)).
      { cbn [scan_all]. rewrite (next_token_ta _ _ ST1 TA), EPOP1. exact HS. }
      assert (HFL' : sc_flow_level (scan_last (S f1) (S n1) t1) = 0%N).
      { cbn [scan_last]. rewrite (next_token_ta _ _ ST1 TA), EPOP1. exact HFL. }
      destruct (end_run f1 f2 (S n1) t1 v1 v2 x1 x2 w2 n2' acc1 toks HV (kp_NoSE _ _ KV NS) SV HE SB EW SW HS' HFL')
        as (l1 & x & ET & EX & HM).
      rewrite <- EO in HM.
      destruct (fetch_more_tokens sops (S f2) (S f2) s2) as [[[] t2]|e k|p|] eqn:EF2; [|destruct HM|..].
      * destruct HM as (TA2 & ST2 & k & l2 & spd & sm & ED & HF & HB).
        exists k, l1, l2, x, spd, sm. split; [exact ET|]. split; [exact EX|]. split; [|split; assumption].
        assert (EN : next_token sops (S f2) s2 = next_token sops (S f2) t2).
        { rewrite NX2, (bind_Ok _ _ _ _ _ EF2). symmetry. apply next_token_ta; assumption. }
        cbn [deliver] in *. rewrite EN. exact ED.
      * exfalso. apply (nerr_improper (S f2) n2 s2 acc2); [|exact HP]. rewrite NX2. apply bind_nerr. rewrite EF2. exact I.
      * exfalso. apply (nerr_improper (S f2) n2 s2 acc2); [|exact HP]. rewrite NX2. apply bind_nerr. rewrite EF2. exact I.
    + exfalso. apply (nerr_improper (S f2) n2 s2 acc2); [|exact HP]. rewrite NX2. apply bind_nerr. exact HN.
Qed.
End Top.
Print Assumptions run_rel.
