From Coq Require Import List NArith Bool Lia.
Import ListNotations.
Require Import Parser Grammar ParserView.

Definition cont_ok (s : pstate) : bool :=
  match s with
  | SBlockMappingValue | SFlowMappingValue | SFlowMappingEmptyValue
  | SBlockMappingKey | SFlowMappingKey
  | SBlockSequenceEntry | SIndentlessSequenceEntry | SFlowSequenceEntry
  | SFlowSequenceEntryMappingValue | SFlowSequenceEntryMappingEnd _ => true
  | _ => false
  end.

Definition cont_frames (s : pstate) : list frame :=
  match s with
  | SDocumentEnd => [FDoc]
  | SBlockMappingValue | SFlowMappingValue | SFlowMappingEmptyValue => [FMapKey]
  | SBlockMappingKey | SFlowMappingKey => [FMapVal]
  | SBlockSequenceEntry | SIndentlessSequenceEntry | SFlowSequenceEntry => [FSeq]
  | SFlowSequenceEntryMappingValue => [FMapKey; FSeq]
  | SFlowSequenceEntryMappingEnd _ => [FMapVal; FSeq]
  | _ => []
  end.

Definition stack_frames (l : list pstate) : list frame := flat_map cont_frames l.

Inductive Rooted : list pstate -> Prop :=
| RootedDoc : Rooted [SDocumentEnd]
| RootedCons s r : cont_ok s = true -> Rooted r -> Rooted (s :: r).

Definition cur_frames (s : pstate) : option (list frame) :=
  match s with
  | SBlockSequenceFirstEntry | SBlockSequenceEntry | SIndentlessSequenceEntry
  | SFlowSequenceFirstEntry | SFlowSequenceEntry => Some [FSeq]
  | SBlockMappingFirstKey | SBlockMappingKey | SFlowMappingFirstKey | SFlowMappingKey => Some [FMapKey]
  | SBlockMappingValue | SFlowMappingValue | SFlowMappingEmptyValue => Some [FMapVal]
  | SFlowSequenceEntryMappingKey => Some [FMapKey; FSeq]
  | SFlowSequenceEntryMappingValue => Some [FMapVal; FSeq]
  | SFlowSequenceEntryMappingEnd _ => Some [FMapKey; FSeq]
  | SBlockNode | SDocumentContent => Some []
  | _ => None
  end.

Definition InvS (st : pstate) (stk : list pstate) (g : gstate) : Prop :=
  match st with
  | SStreamStart => stk = [] /\ g = GInit
  | SEnd => stk = [] /\ g = GEnd
  | SImplicitDocumentStart | SDocumentStart => stk = [] /\ g = GStream []
  | SDocumentEnd => stk = [] /\ g = GStream [FDocDone]
  | _ => Rooted stk /\ exists a, cur_frames st = Some a /\ g = GStream (a ++ stack_frames stk)
  end.

Definition Inv (p : parser) (g : gstate) : Prop := InvS (p_state p) (p_states p) g.

Lemma peek_fields p t p' : peek p = Ok (t, p') -> p_state p' = p_state p /\ p_states p' = p_states p.
Proof.
  unfold peek. destruct (p_token p); [intros H; inversion H; auto|].
  destruct (p_toks p); [discriminate|]. intros H; inversion H; subst; auto.
Qed.

Lemma peek_no_panic p n : peek p <> Panic n.
Proof. unfold peek. destruct (p_token p); [discriminate|]. destruct (p_toks p); discriminate. Qed.

Lemma pop_is_complete s r :
  Rooted (s :: r) ->
  exists F', complete (stack_frames (s :: r)) = Some F' /\ InvS s r (GStream F').
Proof.
  intros H. inversion H as [|s' r' Hc Hr]; subst.
  - simpl. eexists; split; [reflexivity|]. simpl. auto.
  - destruct s; try discriminate; simpl; (eexists; split; [reflexivity|]); simpl;
      (split; [exact Hr|]); eexists; (split; [reflexivity|]); reflexivity.
Qed.

Lemma node_ok_stack stk : Rooted stk -> node_ok (stack_frames stk) = true.
Proof.
  intros H; inversion H as [|s r Hc Hr]; subst; [reflexivity|].
  destruct s; try discriminate; reflexivity.
Qed.

Definition post (G : gstate) (r : res ((event * span) * parser)) : Prop :=
  match r with
  | Panic _ => False
  | Err _ => True
  | Ok ((e, _), p') => exists g', gstep G e = Some g' /\ Inv p' g'
  end.

Lemma resolve_tag_no_panic p m h s n : resolve_tag p m h s <> Panic n.
Proof.
  unfold resolve_tag. destruct (str_eqb h [bang; bang]); [discriminate|].
  destruct (_ && _); [discriminate|]. destruct (assoc h (p_tags p)); [discriminate|].
  destruct (is_named_handle h); discriminate.
Qed.

(* popping the continuation after an event that completes a node *)
Lemma pop_post G p e sp (k : parser -> parser) :
  Rooted (p_states p) ->
  (forall q, p_state (k q) = p_state q /\ p_states (k q) = p_states q) ->
  gstep G e = option_map GStream (complete (stack_frames (p_states p))) ->
  post G (do q <- pop_state p; Ok ((e, sp), k q)).
Proof.
  intros HR Hk He. unfold pop_state.
  destruct (p_states p) as [|s r] eqn:Es; [inversion HR|].
  destruct (pop_is_complete s r HR) as [F' [HF HI]].
  rewrite HF in He. cbn [post]. eexists; split; [exact He|].
  unfold Inv. destruct (Hk (set_state (set_states p r) s)) as [A B].
  rewrite A, B. exact HI.
Qed.

Lemma pop_state_spec p :
  Rooted (p_states p) ->
  exists s r F', p_states p = s :: r /\ pop_state p = Ok (set_state (set_states p r) s)
                 /\ complete (stack_frames (p_states p)) = Some F' /\ InvS s r (GStream F').
Proof.
  intros HR. unfold pop_state. destruct (p_states p) as [|s r] eqn:E; [inversion HR|].
  destruct (pop_is_complete s r HR) as [F' [HF HI]].
  exists s, r, F'. repeat split; auto.
Qed.

Definition tmeasure (p : parser) : nat :=
  length (p_toks p) + match p_token p with Some _ => 1 | None => 0 end.

Lemma peek_measure p t q : peek p = Ok (t, q) -> tmeasure q = tmeasure p /\ p_token q = Some t.
Proof.
  unfold peek, tmeasure. destruct (p_token p) eqn:E.
  - intros H; inversion H; subst. rewrite E. auto.
  - destruct (p_toks p); [discriminate|]. intros H; inversion H; subst. cbn. split; [lia|reflexivity].
Qed.

(* destruct the next [peek] in the goal, transporting the state/stack equalities *)
Ltac step_peek :=
  match goal with
  | |- context [peek ?q] =>
      let E := fresh "E" in let Hs := fresh "Hs" in let Hk := fresh "Hk" in
      let sp := fresh "sp" in let tk := fresh "tk" in let q' := fresh "q" in
      destruct (peek q) as [[[sp tk] q']|?|?] eqn:E;
      [ cbn [fst snd]; pose proof (peek_fields _ _ _ E) as [Hs Hk]; let Hm := fresh "Hpm" in let Ht := fresh "Ht" in pose proof (peek_measure _ _ _ E) as [Hm Ht]; cbn [p_state p_states skip set_tok set_state set_states push_state set_anchors set_tags] in Hs, Hk
      | exact I
      | exfalso; exact (peek_no_panic _ _ E) ]
  end.

Lemma node_props_ok p t :
  match node_props p t with
  | Panic _ => False
  | Err _ => True
  | Ok (_, _, p') => p_state p' = p_state p /\ p_states p' = p_states p
  end.
Proof.
  rewrite node_props_if. unfold register_anchor. cbv zeta.
  destruct (as_anchor (snd t)) as [name|]; [|destruct (as_tag (snd t)) as [[h s]|]; [|split; reflexivity]].
  - step_peek. destruct (as_tag tk) as [[h s]|]; [|split; assumption].
    destruct (resolve_tag _ _ h s) eqn:R; [split; assumption | exact I | exact (resolve_tag_no_panic _ _ _ _ _ R)].
  - destruct (resolve_tag _ _ h s) eqn:R; [| exact I | exact (resolve_tag_no_panic _ _ _ _ _ R)].
    step_peek. destruct (as_anchor tk); split; assumption.
Qed.

Ltac fields := cbn [p_state p_states skip set_tok set_state set_states push_state set_anchors set_tags fst snd] in *.
