(* C11 — for EVERY token stream the pull parser nests no deeper than (twice) the nesting of the tokens it has
   taken: a collection is only ever opened by a collection-start token (BlockSequenceStart, BlockMappingStart,
   FlowSequenceStart, FlowMappingStart) — plus at most one "free" collection directly inside it (the indentless
   sequence of a block mapping value, the single-pair mapping of a flow sequence entry) — and a collection-end
   token (BlockEnd, FlowSequenceEnd, FlowMappingEnd) is only ever consumed by closing the collection it ends.
   The second half is exactly what the defect repaired by c5ad60c violated (flow_sequence_entry_mapping_key
   consumed a FlowSequenceEnd without closing anything). *)
From Coq Require Import List NArith Bool Lia PeanoNat.
Import ListNotations.
Require Import Parser Depth ParserView.
Local Open Scope nat_scope.

(* the running nesting counter of Model/Depth.v, without the maximum *)
Definition cnt (c : nat) (used : list token) : nat := fold_left (fun c t => tok_nest_next c (snd t)) used c.

Lemma cnt_app c a b : cnt c (a ++ b) = cnt (cnt c a) b.
Proof. unfold cnt. apply fold_left_app. Qed.

Lemma tok_nest_run_fst toks : forall c m, fst (tok_nest_run toks (c, m)) = cnt c toks.
Proof.
  induction toks as [|t r IH]; intros c m; [reflexivity|].
  unfold tok_nest_run, cnt in *. cbn [fold_left]. unfold tok_nest_step at 2. cbn [fst snd]. apply IH.
Qed.

Lemma tok_nest_run_snd_ge toks : forall c m, m <= snd (tok_nest_run toks (c, m)).
Proof.
  induction toks as [|t r IH]; intros c m; [apply le_n|].
  unfold tok_nest_run in *. cbn [fold_left]. unfold tok_nest_step at 2. cbn [fst snd].
  etransitivity; [|apply IH]. lia.
Qed.

Lemma tok_nest_run_cur_le_max toks : forall c m, c <= m -> fst (tok_nest_run toks (c, m)) <= snd (tok_nest_run toks (c, m)).
Proof.
  induction toks as [|t r IH]; intros c m H; [exact H|].
  unfold tok_nest_run in *. cbn [fold_left]. unfold tok_nest_step at 2 4. cbn [fst snd]. apply IH. lia.
Qed.

Lemma tok_nest_run_app a b cm : tok_nest_run (a ++ b) cm = tok_nest_run b (tok_nest_run a cm).
Proof. unfold tok_nest_run. apply fold_left_app. Qed.

(* the counter after any prefix is at most the maximum over the whole list *)
Lemma cnt_prefix_le_max a b : cnt 0 a <= tok_nest_max (a ++ b).
Proof.
  unfold tok_nest_max. rewrite tok_nest_run_app.
  destruct (tok_nest_run a (0, 0)) as [c m] eqn:E.
  pose proof (tok_nest_run_cur_le_max a 0 0 (le_n 0)) as H. rewrite E in H. cbn [fst snd] in H.
  pose proof (tok_nest_run_fst a 0 0) as F. rewrite E in F. cbn [fst] in F. rewrite <- F.
  etransitivity; [exact H|]. apply tok_nest_run_snd_ge.
Qed.

(* tokens the parser has not consumed: the one-token cache and the rest of the stream *)
Definition remaining (p : parser) : list token :=
  match p_token p with Some t => t :: p_toks p | None => p_toks p end.

(* states entered with the collection-start token still in the cache *)
Definition is_first (s : pstate) : bool :=
  match s with
  | SBlockSequenceFirstEntry | SBlockMappingFirstKey | SFlowSequenceFirstEntry | SFlowMappingFirstKey => true
  | _ => false
  end.

(* collections opened by a TOKEN that a state (current, or continuation on the heap stack) stands for *)
Definition tframe (s : pstate) : nat :=
  match s with
  | SBlockSequenceFirstEntry | SBlockSequenceEntry
  | SBlockMappingFirstKey | SBlockMappingKey | SBlockMappingValue
  | SFlowSequenceFirstEntry | SFlowSequenceEntry
  | SFlowSequenceEntryMappingKey | SFlowSequenceEntryMappingValue | SFlowSequenceEntryMappingEnd _
  | SFlowMappingFirstKey | SFlowMappingKey | SFlowMappingValue | SFlowMappingEmptyValue => 1
  | _ => 0
  end.
(* collections OPEN IN THE EVENTS that it stands for: the indentless sequence has no token of its own, the
   single-pair mapping of a flow sequence entry ("[ a: b ]", "[ ? a ]") neither *)
Definition eframe (s : pstate) : nat :=
  match s with
  | SIndentlessSequenceEntry => 1
  | SFlowSequenceEntryMappingKey | SFlowSequenceEntryMappingValue | SFlowSequenceEntryMappingEnd _ => 2
  | _ => tframe s
  end.
Definition sumf (f : pstate -> nat) (l : list pstate) : nat := fold_right (fun s n => f s + n) 0 l.

Definition is_bm (s : pstate) : bool := match s with SBlockMappingKey | SBlockMappingValue => true | _ => false end.
Definition head_bm (l : list pstate) : bool := match l with s :: _ => is_bm s | [] => false end.
(* an indentless sequence sits directly on a block mapping *)
Fixpoint shape (l : list pstate) : bool :=
  match l with
  | [] => true
  | s :: r => (match s with SIndentlessSequenceEntry => head_bm r | _ => true end) && shape r
  end.
Definition nofirst (l : list pstate) : bool := forallb (fun s => negb (is_first s)) l.

Lemma shape_bound l : shape l = true ->
  sumf eframe l <= 2 * sumf tframe l /\ (head_bm l = true -> sumf eframe l + 1 <= 2 * sumf tframe l).
Proof.
  induction l as [|s r IH]; intros H; [cbn; split; [lia|discriminate]|].
  cbn [shape] in H. apply andb_prop in H as [H1 H2]. destruct (IH H2) as [A B].
  cbn [sumf fold_right]. fold (sumf eframe r). fold (sumf tframe r).
  destruct s; cbn [eframe tframe head_bm is_bm] in *; split; try discriminate; try lia;
    try (intros _; lia).
  specialize (B H1). lia.
Qed.

(* the invariant: [c] is the nesting counter of the tokens consumed so far *)
Definition first_ok (p : parser) : Prop :=
  is_first (p_state p) = true -> exists t, p_token p = Some t /\ tok_open (snd t) = true.
Definition K (p : parser) (c : nat) : Prop :=
  shape (p_state p :: p_states p) = true
  /\ nofirst (p_states p) = true
  /\ tframe (p_state p) + sumf tframe (p_states p) <= c + (if is_first (p_state p) then 1 else 0)
  /\ first_ok p.

Definition kpost (p : parser) (c : nat) (r : res ((event * span) * parser)) : Prop :=
  match r with
  | Parser.Ok (_, p') => exists used, remaining p = used ++ remaining p' /\ K p' (cnt c used)
  | _ => True
  end.

Lemma kpost_frame p c q used r :
  remaining p = used ++ remaining q -> kpost q (cnt c used) r -> kpost p c r.
Proof.
  intros E H. destruct r as [[ev p']|e|n]; cbn [kpost] in *; auto.
  destruct H as (u & E2 & HK). exists (used ++ u). split.
  - rewrite E, E2, app_assoc. reflexivity.
  - rewrite cnt_app. exact HK.
Qed.

Lemma used_nil {A} (R : list A) : R = [] ++ R.
Proof. reflexivity. Qed.
Lemma used_cons {A} (t : A) R R' u : R = u ++ R' -> t :: R = (t :: u) ++ R'.
Proof. intros ->. reflexivity. Qed.

Lemma kpost_ok p c e q used : remaining p = used ++ remaining q -> K q (cnt c used) -> kpost p c (Ok (e, q)).
Proof. intros E H. exists used. split; assumption. Qed.

(* [peek] hands out the head of [remaining] and keeps it in the cache *)
Lemma peek_eq p t q : peek p = Ok (t, q) -> exists l, remaining p = t :: l /\ q = set_tok p l (Some t).
Proof.
  unfold peek, remaining. destruct (p_token p) as [t0|] eqn:E.
  - intros H. inversion H. subst t0 q. exists (p_toks p). split; [reflexivity|].
    destruct p as [l ca stk st an aid tg kt]. cbn [p_token] in E. subst ca. reflexivity.
  - destruct (p_toks p) as [|t0 r]; intros H; inversion H. exists r. split; reflexivity.
Qed.

(* A walk goes from parser to parser: [p] is where it stands, [q] the parser the function peeks next, [used] the
   tokens skipped in between.  Each is written as an update of the parser the walk started from, so that what is
   known of that parser's stack applies to it by computation. *)
Lemma kpost_peek p q used c (body : token * parser -> res (event * span * parser)) :
  remaining p = used ++ remaining q ->
  (forall t l, kpost (set_tok q l (Some t)) (cnt c used) (body (t, set_tok q l (Some t)))) ->
  kpost p c (do x <- peek q; body x).
Proof.
  intros Eu H. destruct (peek q) as [[t q']| |] eqn:E; [|exact I..]. apply peek_eq in E as (l & El & ->).
  apply (kpost_frame _ _ (set_tok q l (Some t)) used); [rewrite Eu, El; reflexivity|apply H].
Qed.

Lemma sumf_cons f s r : sumf f (s :: r) = f s + sumf f r.
Proof. reflexivity. Qed.

(* the heap stack is sound, and the counter covers its frames and [n] more *)
Definition Stk (p : parser) (n c : nat) : Prop :=
  shape (p_states p) = true /\ nofirst (p_states p) = true /\ n + sumf tframe (p_states p) <= c.

Lemma K_stk p c : K p c -> is_first (p_state p) = false -> Stk p (tframe (p_state p)) c.
Proof.
  intros (HS & HN & HT & _) F. rewrite F, Nat.add_0_r in HT. cbn [shape] in HS. apply andb_prop in HS as [_ HS].
  repeat split; assumption.
Qed.

Lemma K_stk_first p c : K p c -> is_first (p_state p) = true ->
  exists t, p_token p = Some t /\ tok_open (snd t) = true /\ Stk p 1 (S c).
Proof.
  intros (HS & HN & HT & HF) F. destruct (HF F) as (t & Et & HO). exists t. repeat split; try assumption.
  - cbn [shape] in HS. apply andb_prop in HS as [_ HS]. exact HS.
  - rewrite F in HT. destruct (p_state p); try discriminate F; cbn [tframe] in HT; lia.
Qed.

Lemma K_indentless p c : K p c -> p_state p = SIndentlessSequenceEntry -> head_bm (p_states p) = true.
Proof. intros (HS & _) E. rewrite E in HS. cbn [shape] in HS. apply andb_prop in HS as [HS _]. exact HS. Qed.

(* a state [s] over the stack of [X]: pushed as continuation ... *)
Lemma Stk_push q X s n c c' :
  Stk X n c -> p_states q = s :: p_states X -> is_first s = false ->
  (s = SIndentlessSequenceEntry -> head_bm (p_states X) = true) -> tframe s + c <= n + c' -> Stk q 0 c'.
Proof.
  intros (HS & HN & HT) E F HB L. unfold Stk, nofirst in *. rewrite E. cbn [shape forallb].
  rewrite HS, andb_true_r, F, HN, sumf_cons. repeat split; [|lia]. destruct s; try reflexivity. apply HB. reflexivity.
Qed.

(* ... or made the current state *)
Lemma K_set q X n c c' :
  Stk X n c -> p_states q = p_states X -> is_first (p_state q) = false ->
  (p_state q = SIndentlessSequenceEntry -> head_bm (p_states X) = true) -> tframe (p_state q) + c <= n + c' -> K q c'.
Proof.
  intros (HS & HN & HT) E F HB L. unfold K, first_ok. rewrite E, F. cbn [shape]. rewrite HS, andb_true_r.
  repeat split; [|exact HN|lia|discriminate]. destruct (p_state q); try reflexivity. apply HB. reflexivity.
Qed.

(* a collection opened by the token in the cache *)
Lemma K_first q X c t :
  Stk X 0 c -> p_states q = p_states X -> is_first (p_state q) = true -> p_token q = Some t -> tok_open (snd t) = true ->
  K q c.
Proof.
  intros (HS & HN & HT) E F Et HO. unfold K, first_ok. rewrite E, F.
  destruct (p_state q); try discriminate F; cbn [shape tframe andb]; repeat split; try assumption; try lia;
    intros _; exists t; split; assumption.
Qed.

(* popping the continuation: the popped state becomes current *)
Lemma K_pop q X s r n c c' :
  Stk X n c -> p_states X = s :: r -> p_state q = s -> p_states q = r -> c <= n + c' -> K q c'.
Proof.
  intros (HS & HN & HT) E Es Er L. rewrite E in *. unfold K, first_ok. rewrite Es, Er.
  unfold nofirst in HN. cbn [forallb] in HN. apply andb_prop in HN as [F HN]. apply negb_true_iff in F.
  rewrite sumf_cons in HT. rewrite F. repeat split; [exact HS|exact HN|lia|discriminate].
Qed.

Lemma kpost_pop p q c (body : parser -> res (event * span * parser)) :
  (forall s r, p_states q = s :: r -> kpost p c (body (set_state (set_states q r) s))) ->
  kpost p c (do x <- pop_state q; body x).
Proof. intros H. unfold pop_state. destruct (p_states q) as [|s r]; [exact I|]. apply H. reflexivity. Qed.

Ltac pcbn :=
  cbn [p_toks p_token p_states p_state p_anchors p_anchor_id p_tags p_keep_tags
       skip push_state set_tok set_state set_states set_anchors set_tags fst snd].
(* side conditions at a leaf: projections of updated parsers, the counter over tokens of known kind, frames *)
Ltac kcnt := pcbn; cbn [cnt fold_left tok_nest_next tok_open tok_close snd Nat.pred tframe is_first is_bm head_bm].
Ltac kused := unfold remaining; pcbn; repeat first [ apply used_nil | apply used_cons ].
Ltac kside := kcnt; first [ assumption | reflexivity | discriminate | intros _; first [reflexivity | assumption] | lia ].

(* leaves: a new current state over the stack of the parser [HW] speaks of *)
Ltac kset HW := eapply kpost_ok; [kused | eapply K_set; [exact HW | reflexivity | kside | kside | kside]].
(* the state popped from it *)
Ltac kpopped HW Es :=
  eapply kpost_ok; [kused | eapply K_pop; [exact HW | exact Es | reflexivity | reflexivity | kside]].
Ltac kpop HW := let Es := fresh "Es" in apply kpost_pop; intros ? ? Es; kpopped HW Es.
(* the function peeks: [sp], [k] name the token, [l] what is behind it *)
Tactic Notation "kpeek" ident(sp) ident(k) ident(l) :=
  eapply kpost_peek; [kused|]; intros [sp k] l; cbn beta iota; cbn [fst snd].

(* a test on the kind of a token: where it succeeds, the kind is known *)
Ltac ktest c k :=
  let H := fresh "Hk" in destruct (tis c k) eqn:H; [apply (tis_bare c k eq_refl) in H; subst k | clear H].

(* only tokens that leave the counter alone were read; state and stack are as before *)
Definition neutral_run (p q : parser) : Prop :=
  p_state q = p_state p /\ p_states q = p_states p
  /\ exists used, remaining p = used ++ remaining q /\ forall c, cnt c used = c.

Lemma kpost_after_neutral p q c r : neutral_run p q -> kpost q c r -> kpost p c r.
Proof.
  intros (_ & _ & used & E & N) H. eapply kpost_frame; [exact E|]. rewrite N. exact H.
Qed.

(* anchor and tag do not nest *)
Lemma node_props_neutral p l t :
  match node_props (set_tok p l (Some t)) t with
  | Ok (_, q) => neutral_run (set_tok p l (Some t)) q
  | _ => True
  end.
Proof.
  assert (Hleaf : forall q used, p_state q = p_state p -> p_states q = p_states p ->
            t :: l = used ++ remaining q -> (forall c, cnt c used = c) -> neutral_run (set_tok p l (Some t)) q).
  { intros q used A B C D. repeat split; [exact A|exact B|]. exists used. split; [exact C|exact D]. }
  rewrite node_props_if. destruct t as [sp k]. cbn [fst snd].
  destruct (as_anchor k) as [name|] eqn:Ea; [|destruct (as_tag k) as [[h s]|] eqn:Eg].
  - apply as_anchor_inv in Ea. subst k. unfold register_anchor, peek. pcbn.
    destruct l as [|[sp2 k2] l2]; [exact I|]. pcbn. destruct (as_tag k2) as [[h s]|] eqn:Eg.
    + apply as_tag_inv in Eg. subst k2. destruct (resolve_tag _ _ h s); [|exact I..].
      eapply Hleaf; [reflexivity|reflexivity|kused|reflexivity].
    + eapply Hleaf; [reflexivity|reflexivity|kused|reflexivity].
  - apply as_tag_inv in Eg. subst k. destruct (resolve_tag _ _ h s); [|exact I..]. unfold peek. pcbn.
    destruct l as [|[sp2 k2] l2]; [exact I|]. pcbn. destruct (as_anchor k2) as [name|] eqn:Ea2.
    + apply as_anchor_inv in Ea2. subst k2. unfold register_anchor. pcbn.
      eapply Hleaf; [reflexivity|reflexivity|kused|reflexivity].
    + eapply Hleaf; [reflexivity|reflexivity|kused|reflexivity].
  - eapply Hleaf; [reflexivity|reflexivity|kused|reflexivity].
Qed.

(* precondition of parse_node: only the heap stack matters, the current state is overwritten *)
Definition PreNode (p : parser) (c : nat) (indentless : bool) : Prop :=
  Stk p 0 c /\ (indentless = true -> head_bm (p_states p) = true).

Lemma empty_or_err_k p q c aid tg sp :
  remaining p = remaining q -> Stk q 0 c -> kpost p c (empty_or_err q aid tg sp).
Proof.
  intros E HW. unfold empty_or_err. destruct (has_props aid tg); [|exact I]. apply kpost_pop. intros s r Es.
  eapply kpost_ok; [rewrite E; kused | eapply K_pop; [exact HW | exact Es | reflexivity | reflexivity | kside]].
Qed.

Lemma node_content_k p c aid tg b i : PreNode p c i -> kpost p c (node_content p aid tg b i).
Proof.
  intros [HW HI]. rewrite node_content_if. kpeek sp k l.
  destruct (as_scalar k) as [[st v]|] eqn:Es.
  { apply as_scalar_inv in Es. subst k. kpop HW. }
  destruct (tis TBlockEntry k).
  { destruct i; [specialize (HI eq_refl); kset HW | apply empty_or_err_k; [reflexivity|exact HW]]. }
  assert (Hopen : forall st ev, is_first st = true -> tok_open k = true ->
            kpost (set_tok p l (Some (sp, k))) c (Ok ((ev, sp), set_state (set_tok p l (Some (sp, k))) st))).
  { intros st ev F HO. eapply kpost_ok; [kused|]. eapply K_first; [exact HW|reflexivity|exact F|reflexivity|exact HO]. }
  ktest TFlowSequenceStart k; [apply Hopen; reflexivity|].
  ktest TFlowMappingStart k; [apply Hopen; reflexivity|].
  ktest TBlockSequenceStart k; destruct b; cbn [tis andb]; try (apply Hopen; reflexivity).
  all: try (ktest TBlockMappingStart k; cbn [andb]; try (apply Hopen; reflexivity)).
  all: apply empty_or_err_k; [reflexivity|exact HW].
Qed.

Lemma parse_node_k p c b i : PreNode p c i -> kpost p c (parse_node p b i).
Proof.
  intros [HW HI]. rewrite parse_node_if. kpeek sp k l.
  destruct (as_alias k) as [name|] eqn:Ea.
  - apply as_alias_inv in Ea. subst k. apply kpost_pop. intros s r Es. cbn zeta.
    destruct (assoc name _); [|exact I]. kpopped HW Es.
  - pose proof (node_props_neutral p l (sp, k)) as HN.
    destruct (node_props _ (sp, k)) as [[[aid tg] q]| |]; [|exact I..].
    apply (kpost_after_neutral _ q _ _ HN). apply node_content_k.
    destruct HN as (_ & E & _). unfold PreNode, Stk. rewrite E. exact (conj HW HI).
Qed.

Lemma parse_node_at p q used c b i :
  remaining p = used ++ remaining q -> PreNode q (cnt c used) i -> kpost p c (parse_node q b i).
Proof. intros E H. apply (kpost_frame _ _ q used); [exact E|]. apply parse_node_k, H. Qed.

(* leaf: a node, with continuation [s] pushed on the stack [HW] speaks of *)
Ltac knode HW :=
  eapply parse_node_at; [kused | split; [eapply Stk_push; [exact HW | reflexivity | kside | kside | kside] | kside]].

Lemma node_or_empty_k ks p q used n c st b i :
  remaining p = used ++ remaining q -> Stk q n (cnt c used) -> is_first st = false -> tframe st <= n ->
  (st = SIndentlessSequenceEntry -> head_bm (p_states q) = true) -> (i = true -> is_bm st = true) ->
  kpost p c (node_or_empty ks q st b i).
Proof.
  intros E HW F L HB HI. unfold node_or_empty. apply (kpost_peek _ _ used); [exact E|]. intros [sp k] l. cbn beta iota.
  destruct (tin ks _); [kset HW | knode HW].
Qed.

Ltac knoe HW := eapply node_or_empty_k; [kused|kcnt; exact HW|kside..].

(* the collection-start token still in the cache of a first-entry state is taken, and counted *)
Lemma kpost_first p c (first : bool) (body : parser -> res (event * span * parser)) :
  K p c -> is_first (p_state p) = first -> tframe (p_state p) = 1 ->
  (forall q c', Stk q 1 c' -> kpost q c' (body q)) ->
  kpost p c (do q <- (if first then do (_, q) <- peek p; Ok (skip q) else Ok p); body q).
Proof.
  intros HK F T H. destruct first.
  - destruct (K_stk_first _ _ HK F) as (t & Et & HO & HW). rewrite (peek_cached _ _ Et).
    apply (kpost_frame _ _ (skip p) [t]); [unfold remaining; rewrite Et; reflexivity|].
    apply H. cbn [cnt fold_left]. unfold tok_nest_next. rewrite HO. exact HW.
  - apply H. rewrite <- T. apply K_stk; assumption.
Qed.

Lemma block_mapping_key_k p c (first : bool) :
  p_state p = (if first then SBlockMappingFirstKey else SBlockMappingKey) -> K p c ->
  kpost p c (block_mapping_key p first).
Proof.
  intros Est HK. rewrite block_mapping_key_if.
  apply kpost_first; [exact HK|rewrite Est; destruct first; reflexivity..|]. clear. intros p c HW.
  kpeek sp k l.
  ktest TKey k. { knoe HW. }
  destruct (tis TValue k). { kset HW. }
  ktest TBlockEnd k; [|exact I]. kpop HW.
Qed.

Lemma flow_mapping_key_k p c (first : bool) :
  p_state p = (if first then SFlowMappingFirstKey else SFlowMappingKey) -> K p c ->
  kpost p c (flow_mapping_key p first).
Proof.
  intros Est HK. rewrite flow_mapping_key_if.
  apply kpost_first; [exact HK|rewrite Est; destruct first; reflexivity..|]. clear p c Est HK. intros p c HW.
  kpeek sp k l.
  ktest TFlowMappingEnd k. { kpop HW. }
  destruct first; cbn beta iota.
  2: erewrite peek_cached by reflexivity; cbn beta iota; cbn [fst snd]; ktest TFlowEntry k; [|exact I].
  all: kpeek sp2 k2 l2.
  all: ktest TKey k2; [knoe HW|].
  all: destruct (tis TValue k2); [kset HW|].
  all: ktest TFlowMappingEnd k2; [kpop HW|knode HW].
Qed.

Lemma flow_sequence_entry_k p c (first : bool) :
  p_state p = (if first then SFlowSequenceFirstEntry else SFlowSequenceEntry) -> K p c ->
  kpost p c (flow_sequence_entry p first).
Proof.
  intros Est HK. rewrite flow_sequence_entry_if.
  apply kpost_first; [exact HK|rewrite Est; destruct first; reflexivity..|]. clear p c Est HK. intros p c HW.
  kpeek sp k l.
  ktest TFlowSequenceEnd k. { kpop HW. }
  destruct first; cbn beta iota.
  2: ktest TFlowEntry k; [|exact I].
  all: kpeek sp2 k2 l2.
  all: ktest TFlowSequenceEnd k2; [kpop HW|].
  all: ktest TKey k2; [kset HW|knode HW].
Qed.

Lemma block_sequence_entry_k p c (first : bool) :
  p_state p = (if first then SBlockSequenceFirstEntry else SBlockSequenceEntry) -> K p c ->
  kpost p c (block_sequence_entry p first).
Proof.
  intros Est HK. rewrite block_sequence_entry_if.
  apply kpost_first; [exact HK|rewrite Est; destruct first; reflexivity..|]. clear. intros p c HW.
  kpeek sp k l.
  ktest TBlockEnd k. { kpop HW. }
  ktest TBlockEntry k; [|exact I]. knoe HW.
Qed.

Lemma K_at p c st : p_state p = st -> is_first st = false -> K p c -> Stk p (tframe st) c.
Proof. intros <- F HK. apply K_stk; assumption. Qed.

Ltac kstart Est HK HW := intros Est HK; pose proof (K_at _ _ _ Est eq_refl HK) as HW; cbn [tframe] in HW.

Lemma block_mapping_value_k p c : p_state p = SBlockMappingValue -> K p c -> kpost p c (block_mapping_value p).
Proof.
  kstart Est HK HW. rewrite block_mapping_value_if.
  kpeek sp k l.
  ktest TValue k; [|kset HW]. knoe HW.
Qed.

Lemma flow_mapping_value_k p c : p_state p = SFlowMappingValue -> K p c -> kpost p c (flow_mapping_value p false).
Proof.
  kstart Est HK HW. rewrite flow_mapping_value_if.
  kpeek sp k l.
  ktest TValue k; [|kset HW]. kpeek sp2 k2 l2.
  destruct (tin _ _); [kset HW|knode HW].
Qed.

Lemma flow_mapping_empty_value_k p c :
  p_state p = SFlowMappingEmptyValue -> K p c -> kpost p c (flow_mapping_value p true).
Proof.
  kstart Est HK HW. rewrite flow_mapping_value_if.
  kpeek sp k l. kset HW.
Qed.

Lemma indentless_sequence_entry_k p c :
  p_state p = SIndentlessSequenceEntry -> K p c -> kpost p c (indentless_sequence_entry p).
Proof.
  kstart Est HK HW.
  pose proof (K_indentless _ _ HK Est) as HB. rewrite indentless_sequence_entry_if.
  kpeek sp k l.
  ktest TBlockEntry k.
  - knoe HW.
  - kpop HW.
Qed.

Lemma fsem_key_k p c :
  p_state p = SFlowSequenceEntryMappingKey -> K p c -> kpost p c (flow_sequence_entry_mapping_key p).
Proof.
  kstart Est HK HW.
  rewrite flow_sequence_entry_mapping_key_if. knoe HW.
Qed.

Lemma fsem_value_k p c :
  p_state p = SFlowSequenceEntryMappingValue -> K p c -> kpost p c (flow_sequence_entry_mapping_value p).
Proof.
  kstart Est HK HW.
  rewrite flow_sequence_entry_mapping_value_if.
  kpeek sp k l.
  ktest TValue k; [|kset HW]. kpeek sp2 k2 l2. cbn zeta.
  destruct (tin _ _); [kset HW|knode HW].
Qed.

Lemma fsem_end_k p c m :
  p_state p = SFlowSequenceEntryMappingEnd m -> K p c -> kpost p c (flow_sequence_entry_mapping_end p m).
Proof.
  kstart Est HK HW.
  unfold flow_sequence_entry_mapping_end. kset HW.
Qed.

Lemma stream_start_k p c : p_state p = SStreamStart -> K p c -> kpost p c (stream_start p).
Proof.
  kstart Est HK HW. rewrite stream_start_if.
  kpeek sp k l.
  ktest TStreamStart k; [kset HW|exact I].
Qed.

Lemma document_content_k p c : p_state p = SDocumentContent -> K p c -> kpost p c (document_content p).
Proof.
  kstart Est HK HW. rewrite document_content_if.
  kpeek sp k l.
  destruct (tin _ _).
  - kpop HW.
  - eapply parse_node_at; [kused|]. split; [exact HW|discriminate].
Qed.

Lemma document_end_k p c : p_state p = SDocumentEnd -> K p c -> kpost p c (document_end p).
Proof.
  kstart Est HK HW. rewrite document_end_if.
  kpeek sp k l. cbn zeta.
  ktest TDocumentEnd k; pcbn; destruct (p_keep_tags p); [kset HW..| |].
  all: kpeek sp2 k2 l2; destruct (tin _ _); [exact I|kset HW].
Qed.

Lemma block_node_k p c : p_state p = SBlockNode -> K p c -> kpost p c (parse_node p true false).
Proof.
  intros Est HK. apply parse_node_k. split; [exact (K_at _ _ _ Est eq_refl HK)|discriminate].
Qed.
