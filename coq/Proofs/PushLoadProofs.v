(* C17, push interface: Parser::load delivers exactly the iterator's events and error, provided the iteration is
   a prefix of an event sentence (which C02 proves of the parser for every token stream). *)
From Coq Require Import List NArith Bool Arith Lia.
Import ListNotations.
Require Import Parser Grammar C02run PushLoad.
Local Open Scope nat_scope.

Definition kinds (l : list ev) : list event := map fst l.

(* events before the first error *)
Fixpoint pre (rs : list result) : list ev :=
  match rs with inl x :: r => x :: pre r | _ => [] end.
Fixpoint has_err (rs : list result) : bool :=
  match rs with [] => false | inr _ :: _ => true | inl _ :: r => has_err r end.

Definition Pref (g : gstate) (rs : list result) : Prop := grun g (kinds (pre rs)) <> None.

Lemma pref_cons g x rs : Pref g (inl x :: rs) -> exists g', gstep g (fst x) = Some g' /\ Pref g' rs.
Proof.
  unfold Pref. cbn [pre kinds map grun]. destruct (gstep g (fst x)) as [g'|]; [|congruence]. eauto.
Qed.

(* outcome of a sub-loader started with accumulator [acc] on results [rs]: it consumed [consumed] and either
   finished with the stated postcondition or stopped at the first error, having pushed everything before it *)
Inductive good (acc : list ev) (rs : list result) (P : list ev -> list result -> Prop) : lout -> Prop :=
| GDone consumed rs' : rs = map inl consumed ++ rs' -> P consumed rs' -> good acc rs P (LDone (rev consumed ++ acc) rs')
| GFail consumed e tl : rs = map inl consumed ++ inr e :: tl -> good acc rs P (LFail e (rev consumed ++ acc)).

Lemma good_weaken acc rs (P Q : list ev -> list result -> Prop) o : good acc rs P o -> (forall c r, P c r -> Q c r) -> good acc rs Q o.
Proof. intros H HPQ. destruct H; [eapply GDone; eauto|eapply GFail; eauto]. Qed.

(* prepend an already consumed event *)
Lemma good_cons x acc rs (P : list ev -> list result -> Prop) o :
  good (x :: acc) rs (fun c r => P (x :: c) r) o -> good acc (inl x :: rs) P o.
Proof.
  intros H. destruct H as [c r E HP|c e tl E].
  - replace (rev c ++ x :: acc) with (rev (x :: c) ++ acc) by (cbn; rewrite <- app_assoc; reflexivity).
    eapply GDone; [cbn; rewrite E; reflexivity|exact HP].
  - replace (rev c ++ x :: acc) with (rev (x :: c) ++ acc) by (cbn; rewrite <- app_assoc; reflexivity).
    eapply GFail. cbn. rewrite E. reflexivity.
Qed.

(* the two ways Model/PushLoad.v puts loaders together: read the next result, go on after a sub-loader.  A loader
   unfolded by [cbn] is such a term up to conversion, and [apply] of a lemma about [lread] or [lthen] finds the
   continuation *)
Definition lread (rs : list result) (acc : list ev) (k : ev -> list result -> lout) : lout :=
  match rs with [] => LExhausted | inr e :: _ => LFail e acc | inl x :: rs' => k x rs' end.
Definition lthen (o : lout) (k : list ev -> list result -> lout) : lout :=
  match o with LDone a r => k a r | LFail e p => LFail e p | LPanicked n p => LPanicked n p
             | LOutOfFuel => LOutOfFuel | LExhausted => LExhausted end.

(* reading: the list is a prefix of a sentence and holds an error, so there is a next result; an event among them
   is one the acceptor takes *)
Lemma good_read g acc rs (P : list ev -> list result -> Prop) (k : ev -> list result -> lout) :
  Pref g rs -> has_err rs = true ->
  (forall x rs' g', rs = inl x :: rs' -> gstep g (fst x) = Some g' -> Pref g' rs' -> has_err rs' = true ->
     good (x :: acc) rs' (fun c r => P (x :: c) r) (k x rs')) ->
  good acc rs P (lread rs acc k).
Proof.
  intros HP HE Hk. destruct rs as [|[x|e] rs']; [discriminate| |apply (GFail acc _ _ [] e rs' eq_refl)].
  destruct (pref_cons _ _ _ HP) as [g' [Hs HP']]. apply good_cons. exact (Hk x rs' g' eq_refl Hs HP' HE).
Qed.

(* sequencing: first part consumed c1 leaving r1, then the second part runs on r1 *)
Lemma good_seq acc rs (P1 P2 : list ev -> list result -> Prop) o1 (k : list ev -> list result -> lout) :
  good acc rs P1 o1 ->
  (forall c1 r1, rs = map inl c1 ++ r1 -> P1 c1 r1 ->
     good (rev c1 ++ acc) r1 (fun c2 r2 => P2 (c1 ++ c2) r2) (k (rev c1 ++ acc) r1)) ->
  good acc rs P2 (lthen o1 k).
Proof.
  intros H1 Hk. destruct H1 as [c1 r1 E HP|c1 e tl E].
  - specialize (Hk c1 r1 E HP). cbn [lthen]. destruct Hk as [c2 r2 E2 HP2|c2 e tl E2].
    + replace (rev c2 ++ rev c1 ++ acc) with (rev (c1 ++ c2) ++ acc) by (rewrite rev_app_distr, app_assoc; reflexivity).
      eapply GDone; [rewrite E, E2, map_app, app_assoc; reflexivity|exact HP2].
    + replace (rev c2 ++ rev c1 ++ acc) with (rev (c1 ++ c2) ++ acc) by (rewrite rev_app_distr, app_assoc; reflexivity).
      eapply GFail. rewrite E, E2, map_app, <- app_assoc. reflexivity.
  - eapply GFail. exact E.
Qed.

Lemma has_err_nonempty rs : has_err rs = true -> rs <> [].
Proof. destruct rs; [discriminate|congruence]. Qed.

(* gstep inversions *)
Lemma gstep_node_under_seq stk x g' :
  gstep (GStream (FSeq :: stk)) (fst x) = Some g' -> is_seq_end x = false ->
  is_map_end x = false /\ True.
Proof. unfold is_seq_end, is_map_end. destruct (fst x); cbn; intros H H2; try discriminate; auto. Qed.

Definition node_post (stk : list frame) (g1 : gstate) : list ev -> list result -> Prop :=
  fun consumed rs' => exists stk', complete stk = Some stk' /\ grun g1 (kinds consumed) = Some (GStream stk') /\ Pref (GStream stk') rs'.

Definition is_node_start (e : event) : bool :=
  match e with EAlias _ | EScalar _ _ _ _ | ESequenceStart _ _ | EMappingStart _ _ => true | _ => false end.

Lemma gstep_start_ok stk e g1 : gstep (GStream stk) e = Some g1 -> node_ok stk = true ->
  match e with ESequenceEnd | EMappingEnd => False | _ => True end -> is_node_start e = true.
Proof.
  destruct e; cbn; intros H Hn Hx; try reflexivity; try contradiction;
    destruct stk as [|[] [|]]; cbn in *; try discriminate.
Qed.

Lemma kinds_app a b : kinds (a ++ b) = kinds a ++ kinds b.
Proof. apply map_app. Qed.

Lemma pre_app consumed rs' : pre (map inl consumed ++ rs') = consumed ++ pre rs'.
Proof. induction consumed as [|c l IH]; cbn [map app pre]; [reflexivity|]. rewrite IH. reflexivity. Qed.

Lemma pref_after g consumed rs' g' :
  Pref g (map inl consumed ++ rs') -> grun g (kinds consumed) = Some g' -> Pref g' rs'.
Proof.
  unfold Pref. intros H Hg. rewrite pre_app, kinds_app, grun_app, Hg in H. exact H.
Qed.

Lemma has_err_after consumed rs' : has_err (map inl consumed ++ rs') = has_err rs'.
Proof. induction consumed as [|c l IH]; cbn; auto. Qed.

Lemma length_after (consumed : list ev) (rs' : list result) : length rs' <= length (map inl consumed ++ rs').
Proof. rewrite app_length. apply Nat.le_add_l. Qed.

(* acceptor steps of the collection delimiters *)
Lemma gstep_seq_end stk g' : gstep (GStream (FSeq :: stk)) ESequenceEnd = Some g' ->
  exists stk', complete stk = Some stk' /\ g' = GStream stk'.
Proof. cbn. destruct (complete stk) as [stk'|]; [|discriminate]. intros H; inversion H; eauto. Qed.
Lemma gstep_map_end stk g' : gstep (GStream (FMapKey :: stk)) EMappingEnd = Some g' ->
  exists stk', complete stk = Some stk' /\ g' = GStream stk'.
Proof. cbn. destruct (complete stk) as [stk'|]; [|discriminate]. intros H; inversion H; eauto. Qed.

Lemma not_end_under (f : frame) stk x g' :
  gstep (GStream (f :: stk)) (fst x) = Some g' ->
  (f = FSeq -> is_seq_end x = false) -> (f = FMapKey -> is_map_end x = false) ->
  (f = FSeq \/ f = FMapKey \/ f = FMapVal \/ f = FDoc) ->
  is_seq_end x = false /\ is_map_end x = false.
Proof.
  unfold is_seq_end, is_map_end. intros H H1 H2 Hf.
  destruct (fst x); auto; destruct Hf as [->|[->|[->| ->]]]; cbn in H; try discriminate;
    try (split; [apply H1; reflexivity|reflexivity]); try (split; [reflexivity|apply H2; reflexivity]).
Qed.

Theorem loaders_good fuel :
  (forall first rs acc stk g1,
     gstep (GStream stk) (fst first) = Some g1 -> node_ok stk = true ->
     is_seq_end first = false -> is_map_end first = false ->
     Pref g1 rs -> has_err rs = true -> 2 * length rs + 2 <= fuel ->
     good (first :: acc) rs (node_post stk g1) (load_node fuel first rs acc))
  /\ (forall rs acc stk,
     Pref (GStream (FSeq :: stk)) rs -> has_err rs = true -> 2 * length rs + 1 <= fuel ->
     good acc rs (node_post stk (GStream (FSeq :: stk))) (load_sequence fuel rs acc))
  /\ (forall rs acc stk,
     Pref (GStream (FMapKey :: stk)) rs -> has_err rs = true -> 2 * length rs + 1 <= fuel ->
     good acc rs (node_post stk (GStream (FMapKey :: stk))) (load_mapping fuel rs acc)).
Proof.
  induction fuel as [|f [IHn [IHs IHm]]].
  { repeat split; intros; (unfold result in *; lia). }
  repeat split.
  - (* load_node *)
    intros first rs acc stk g1 Hstep Hok Hse Hme HP HE HF. cbn [load_node].
    assert (Hns : is_node_start (fst first) = true).
    { apply (gstep_start_ok stk _ g1 Hstep Hok). unfold is_seq_end, is_map_end in *. destruct (fst first); auto; discriminate. }
    destruct (fst first) eqn:Ef; try discriminate Hns.
    + cbn in Hstep. destruct (complete stk) as [stk'|] eqn:C; [|discriminate]. inversion Hstep; subst g1.
      apply (GDone (first :: acc) rs _ [] rs eq_refl). exists stk'. repeat split; auto.
    + cbn in Hstep. destruct (complete stk) as [stk'|] eqn:C; [|discriminate]. inversion Hstep; subst g1.
      apply (GDone (first :: acc) rs _ [] rs eq_refl). exists stk'. repeat split; auto.
    + cbn in Hstep. rewrite Hok in Hstep. inversion Hstep; subst g1. apply IHs; auto. (unfold result in *; lia).
    + cbn in Hstep. rewrite Hok in Hstep. inversion Hstep; subst g1. apply IHm; auto. (unfold result in *; lia).
  - (* load_sequence *)
    intros rs acc stk HP HE HF. cbn [load_sequence]. apply (good_read _ _ _ _ _ HP HE).
    intros x rs' g' -> Hs HP' HE'. cbn [length] in HF.
    destruct (is_seq_end x) eqn:Ese.
    + unfold is_seq_end in Ese. destruct (fst x) eqn:Ex; try discriminate.
      destruct (gstep_seq_end _ _ Hs) as [stk' [C ->]].
      apply (GDone (x :: acc) rs' _ [] rs' eq_refl).
      exists stk'. split; [exact C|]. split; [|exact HP']. cbn. rewrite Ex. cbn. rewrite C. reflexivity.
    + destruct (not_end_under FSeq stk x g' Hs (fun _ => Ese) (fun H => ltac:(discriminate H)) (or_introl eq_refl)) as [_ Hme].
      apply (good_seq (x :: acc) rs' (node_post (FSeq :: stk) g')).
      * apply IHn; auto. (unfold result in *; lia).
      * intros c1 r1 E1 (stk' & C & G & P1). cbn in C. inversion C; subst stk'.
        assert (HE1 : has_err r1 = true) by (rewrite E1, has_err_after in HE'; exact HE').
        assert (HL1 : length r1 <= length rs') by (rewrite E1; apply length_after).
        eapply good_weaken; [apply (IHs r1 _ stk P1 HE1); unfold result in *; lia|].
        intros c2 r2 (stk2 & C2 & G2 & P2). exists stk2. split; [exact C2|]. split; [|exact P2].
        cbn [kinds map grun]. fold (kinds (c1 ++ c2)). rewrite Hs, kinds_app, grun_app, G. exact G2.
  - (* load_mapping *)
    intros rs acc stk HP HE HF. cbn [load_mapping]. apply (good_read _ _ _ _ _ HP HE).
    intros k rs' g' -> Hs HP' HE'. cbn [length] in HF.
    destruct (is_map_end k) eqn:Eme.
    + unfold is_map_end in Eme. destruct (fst k) eqn:Ex; try discriminate.
      destruct (gstep_map_end _ _ Hs) as [stk' [C ->]].
      apply (GDone (k :: acc) rs' _ [] rs' eq_refl).
      exists stk'. split; [exact C|]. split; [|exact HP']. cbn. rewrite Ex. cbn. rewrite C. reflexivity.
    + destruct (not_end_under FMapKey stk k g' Hs (fun H => ltac:(discriminate H)) (fun _ => Eme) (or_intror (or_introl eq_refl))) as [Hse _].
      apply (good_seq (k :: acc) rs' (node_post (FMapKey :: stk) g')).
      * apply IHn; auto. (unfold result in *; lia).
      * intros c1 r1 E1 (stk' & C & G & P1). cbn in C. inversion C; subst stk'.
        assert (HE1 : has_err r1 = true) by (rewrite E1, has_err_after in HE'; exact HE').
        assert (HL1 : length r1 <= length rs') by (rewrite E1; apply length_after).
        apply (good_read _ _ _ _ _ P1 HE1).
        intros v rs3 gv -> Hsv HPv HE3. cbn [length] in HL1.
        destruct (not_end_under FMapVal stk v gv Hsv (fun H => ltac:(discriminate H)) (fun H => ltac:(discriminate H))
                    (or_intror (or_intror (or_introl eq_refl)))) as [Hvs Hvm].
        apply (good_seq (v :: rev c1 ++ k :: acc) rs3 (node_post (FMapVal :: stk) gv)).
        -- apply IHn; auto. (unfold result in *; lia).
        -- intros c3 r4 E3 (stk3 & C3 & G3 & P3). cbn in C3. inversion C3; subst stk3.
           assert (HE4 : has_err r4 = true) by (rewrite E3, has_err_after in HE3; exact HE3).
           assert (HL4 : length r4 <= length rs3) by (rewrite E3; apply length_after).
           eapply good_weaken; [apply (IHm r4 _ stk P3 HE4); unfold result in *; lia|].
           intros c5 r5 (stk5 & C5 & G5 & P5). exists stk5. split; [exact C5|]. split; [|exact P5].
           cbn [kinds map grun]. fold (kinds (c1 ++ v :: c3 ++ c5)). rewrite Hs, kinds_app, grun_app, G.
           cbn [kinds map grun]. fold (kinds (c3 ++ c5)). rewrite Hsv, kinds_app, grun_app, G3. exact G5.
Qed.

(* documents and the whole stream *)
Definition stream_post : list ev -> list result -> Prop :=
  fun consumed _ => grun (GStream []) (kinds consumed) = Some GEnd.

Lemma gstep_top x g' : gstep (GStream []) (fst x) = Some g' ->
  (is_stream_end x = true /\ g' = GEnd) \/ (is_stream_end x = false /\ is_doc_start x = true /\ g' = GStream [FDoc]).
Proof.
  unfold is_stream_end, is_doc_start. destruct (fst x); cbn; intros H; try discriminate; inversion H; auto.
Qed.
Lemma gstep_docdone x g' : gstep (GStream [FDocDone]) (fst x) = Some g' -> is_doc_end x = true /\ g' = GStream [].
Proof. unfold is_doc_end. destruct (fst x); cbn; intros H; try discriminate; inversion H; auto. Qed.

Definition doc_post : list ev -> list result -> Prop :=
  fun consumed rs' => grun (GStream [FDoc]) (kinds consumed) = Some (GStream []) /\ Pref (GStream []) rs'.

Lemma document_good f x rs acc :
  is_doc_start x = true -> Pref (GStream [FDoc]) rs -> has_err rs = true -> 2 * length rs + 2 <= f ->
  good (x :: acc) rs doc_post (load_document f x rs acc).
Proof.
  intros Eds HP HE HF. unfold load_document. rewrite Eds. cbn [negb]. apply (good_read _ _ _ _ _ HP HE).
  intros n rs2 g1 -> Hn HPn HE2. cbn [length] in HF.
  destruct (not_end_under FDoc [] n g1 Hn (fun H => ltac:(discriminate H)) (fun H => ltac:(discriminate H))
              (or_intror (or_intror (or_intror eq_refl)))) as [Hns Hnm].
  destruct (loaders_good f) as [Ln _].
  apply (good_seq (n :: x :: acc) rs2 (node_post [FDoc] g1)).
  - apply Ln; auto. unfold result in *; lia.
  - intros c1 r1 E1 (stk' & C & G & P1). cbn in C. inversion C; subst stk'.
    assert (HE1 : has_err r1 = true) by (rewrite E1, has_err_after in HE2; exact HE2).
    apply (good_read _ _ _ _ _ P1 HE1).
    intros d rs3 gd -> Hd HPd _.
    destruct (gstep_docdone _ _ Hd) as [Ede ->]. rewrite Ede.
    apply (GDone _ rs3 _ [] rs3 eq_refl). split; [|exact HPd].
    cbn [kinds map grun]. fold (kinds (c1 ++ [d])). rewrite Hn, kinds_app, grun_app, G. cbn [kinds map grun]. rewrite Hd. reflexivity.
Qed.

Lemma docs_good fuel : forall rs acc,
  Pref (GStream []) rs -> has_err rs = true -> 2 * length rs + 4 <= fuel ->
  good acc rs stream_post (load_docs fuel rs acc).
Proof.
  induction fuel as [|f IH]; intros rs acc HP HE HF; [unfold result in *; lia|].
  cbn [load_docs]. apply (good_read _ _ _ _ _ HP HE).
  intros x rs' g' -> Hs HP' HE'. cbn [length] in HF.
  destruct (gstep_top _ _ Hs) as [[Ese ->]|(Ese & Eds & ->)]; rewrite Ese.
  - apply (GDone (x :: acc) rs' _ [] rs' eq_refl). unfold stream_post. cbn [kinds map grun]. rewrite Hs. reflexivity.
  - apply (good_seq (x :: acc) rs' doc_post).
    + apply document_good; auto. unfold result in *; lia.
    + intros c1 r1 E1 [G P1].
      assert (HE1 : has_err r1 = true) by (rewrite E1, has_err_after in HE'; exact HE').
      assert (HL1 : length r1 <= length rs') by (rewrite E1; apply length_after).
      eapply good_weaken; [apply (IH r1 _ P1 HE1); unfold result in *; lia|].
      intros c2 r2 HS. unfold stream_post in *.
      cbn [kinds map grun]. fold (kinds (c1 ++ c2)). rewrite Hs, kinds_app, grun_app, G. exact HS.
Qed.

(* The push interface (load, multi = true) against the iteration: whenever the iteration is a prefix of an event
   sentence, load either pushes a complete sentence (everything up to and including StreamEnd) and returns Ok, or
   stops at the iteration's first error having pushed exactly the events before it - and that error is the
   iteration's own.  It never panics (no unreachable!(), no failed assert_eq!) and reports no error of its own. *)
Theorem load_multi_is_iteration rs fuel :
  Pref GInit rs -> has_err rs = true -> 2 * length rs + 4 <= fuel ->
  good [] rs (fun consumed _ => grun GInit (kinds consumed) = Some GEnd) (load_multi fuel rs).
Proof.
  intros HP HE HF. unfold load_multi. apply (good_read _ _ _ _ _ HP HE). intros x rs' g' -> Hs HP' HE'. cbn [length] in HF.
  assert (Hx : is_stream_start x = true /\ g' = GStream []).
  { unfold is_stream_start. destruct (fst x); cbn in Hs; try discriminate. inversion Hs; auto. }
  destruct Hx as [Ess ->]. rewrite Ess. cbn [negb].
  eapply good_weaken; [apply docs_good; auto; unfold result in *; lia|].
  intros c r HS. unfold stream_post in HS. cbn [kinds map grun]. rewrite Hs. exact HS.
Qed.
