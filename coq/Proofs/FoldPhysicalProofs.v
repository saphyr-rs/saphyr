(* C04 — the two formulations of line folding in Spec/FlowFold.v agree: the text a PRESENTATION of a plain scalar
   denotes (plain_text: the lines joined by break_text) is the text the folding rules give on the PHYSICAL lines of
   its source (fold_physical of split_lf: first line without its trailing blanks, last line without its leading
   blanks, inner lines without both, blank-only inner lines counted as empty lines).  Pure list reasoning; nothing
   from the model. *)
From Coq Require Import List NArith ZArith Bool Arith Lia.
Import ListNotations.
Require Import FlowFold.
Open Scope N_scope.

Arguments N.eqb : simpl never.
Arguments N.ltb : simpl never.
Arguments N.leb : simpl never.

Definition no_lf (l : list N) : Prop := Forall (fun c => c <> 10) l.

Lemma split_lf_nolf : forall a cur s, no_lf a -> split_lf cur (a ++ s) = split_lf (rev a ++ cur) s.
Proof.
  induction a as [|c a IH]; intros cur s H; [reflexivity|].
  inversion H as [|? ? Hc Ha]; subst. cbn [app split_lf]. apply N.eqb_neq in Hc. rewrite Hc.
  rewrite IH by exact Ha. cbn [rev]. rewrite <- app_assoc. reflexivity.
Qed.
Lemma split_lf_line a s : no_lf a -> split_lf [] (a ++ 10 :: s) = a :: split_lf [] s.
Proof.
  intros H. rewrite split_lf_nolf by exact H. cbn [split_lf]. change (10 =? 10) with true. cbv iota.
  rewrite app_nil_r, rev_involutive. reflexivity.
Qed.
Lemma split_lf_last a : no_lf a -> split_lf [] a = [a].
Proof.
  intros H. rewrite <- (app_nil_r a) at 1. rewrite split_lf_nolf by exact H. cbn [split_lf]. rewrite app_nil_r, rev_involutive. reflexivity.
Qed.

Lemma blanks_no_lf l : forallb is_sp l = true -> no_lf l.
Proof.
  induction l as [|c l IH]; intros H; [constructor|]. cbn [forallb] in H. apply andb_prop in H. destruct H as [Hc H].
  constructor; [|apply IH; exact H]. intros ->. discriminate Hc.
Qed.
Lemma drop_leading_blanks bs l : forallb is_sp bs = true -> drop_leading (bs ++ l) = drop_leading l.
Proof.
  induction bs as [|b bs IH]; intros H; [reflexivity|]. cbn [forallb] in H. apply andb_prop in H. destruct H as [Hb H].
  cbn [app drop_leading]. rewrite Hb. apply IH. exact H.
Qed.
Lemma drop_leading_all bs : forallb is_sp bs = true -> drop_leading bs = [].
Proof. intros H. rewrite <- (app_nil_r bs). rewrite drop_leading_blanks by exact H. reflexivity. Qed.
Lemma drop_leading_head c l : is_sp c = false -> drop_leading (c :: l) = c :: l.
Proof. intros H. cbn [drop_leading]. rewrite H. reflexivity. Qed.
Lemma forallb_rev {A} (f : A -> bool) l : forallb f (rev l) = forallb f l.
Proof.
  induction l as [|x l IH]; [reflexivity|]. cbn [rev forallb]. rewrite forallb_app, IH. cbn [forallb]. rewrite andb_true_r. apply andb_comm.
Qed.

(* a line of text: not empty, no blank at either end, no line feed inside *)
Definition text_line (l : list N) : Prop :=
  l <> [] /\ is_sp (hd 0 l) = false /\ is_sp (last l 0) = false /\ no_lf l.

Lemma drop_trailing_pad l pad : l <> [] -> is_sp (last l 0) = false -> forallb is_sp pad = true -> drop_trailing (l ++ pad) = l.
Proof.
  intros Hne Hl Hp. unfold drop_trailing. rewrite rev_app_distr.
  rewrite drop_leading_blanks by (rewrite forallb_rev; exact Hp).
  destruct (rev l) as [|c r] eqn:E.
  - apply (f_equal (@rev N)) in E. rewrite rev_involutive in E. contradiction.
  - assert (Hc : c = last l 0).
    { apply (f_equal (@rev N)) in E. rewrite rev_involutive in E. subst l. cbn [rev]. rewrite last_last. reflexivity. }
    rewrite drop_leading_head by (rewrite Hc; exact Hl). rewrite <- E. apply rev_involutive.
Qed.
Lemma drop_leading_line ind l : forallb is_sp ind = true -> l <> [] -> is_sp (hd 0 l) = false -> drop_leading (ind ++ l) = l.
Proof.
  intros Hi Hne Hh. rewrite drop_leading_blanks by exact Hi. destruct l as [|c l]; [contradiction|]. apply drop_leading_head. exact Hh.
Qed.

(* the physical lines of a presentation: [cur] is the text of the current physical line so far *)
Fixpoint lines_of (cur : list N) (more : list (brk_layout * list N)) : list (list N) :=
  match more with
  | [] => [cur]
  | (b, l) :: r => (cur ++ bl_pad b) :: bl_empties b ++ lines_of (bl_indent b ++ l) r
  end.
Lemma lines_of_ne cur more : lines_of cur more <> [].
Proof. destruct more as [|[b l] r]; discriminate. Qed.

(* the physical formulation cuts at LF: "CR LF and CR are normalised by the caller", so the breaks are LF here *)
Definition nl_is_lf (k : nl_kind) : bool := match k with NlLF => true | _ => false end.
Definition brk_ok (b : brk_layout) : Prop :=
  bl_escaped b = false /\ forallb is_sp (bl_pad b) = true /\ Forall (fun e => forallb is_sp e = true) (bl_empties b)
  /\ forallb is_sp (bl_indent b) = true /\ bl_nl b = NlLF.

Fixpoint src_of (more : list (brk_layout * list N)) : list N :=
  match more with [] => [] | (b, l) :: r => render_brk b ++ l ++ src_of r end.

Lemma split_empties es s : Forall (fun e => forallb is_sp e = true) es ->
  split_lf [] (flat_map (fun e => e ++ [10]) es ++ s) = es ++ split_lf [] s.
Proof.
  induction es as [|e es IH]; intros H; [reflexivity|]. inversion H as [|? ? He Hes]; subst.
  cbn [flat_map]. rewrite <- !app_assoc. cbn [app]. rewrite split_lf_line by (apply blanks_no_lf; exact He).
  rewrite IH by exact Hes. reflexivity.
Qed.

Lemma split_presentation : forall more cur,
  no_lf cur -> Forall (fun p => brk_ok (fst p) /\ text_line (snd p)) more ->
  split_lf [] (cur ++ src_of more) = lines_of cur more.
Proof.
  induction more as [|[b l] more IH]; intros cur Hcur H.
  - cbn [src_of lines_of]. rewrite app_nil_r. apply split_lf_last. exact Hcur.
  - inversion H as [|? ? [[He [Hp [Hes [Hi Hnl]]]] [_ [_ [_ Hl]]]] Hmore]; subst. cbn [fst snd] in *.
    cbn [src_of lines_of]. unfold render_brk. rewrite He, Hnl. cbn [nl_src app]. rewrite <- !app_assoc. cbn [app].
    rewrite app_assoc. rewrite split_lf_line by (apply Forall_app; split; [exact Hcur|apply blanks_no_lf; exact Hp]).
    rewrite <- !app_assoc. rewrite split_empties by exact Hes. f_equal. f_equal.
    rewrite app_assoc. apply IH; [|exact Hmore]. apply Forall_app. split; [apply blanks_no_lf; exact Hi|exact Hl].
Qed.

Fixpoint lines_text (more : list (brk_layout * list N)) : list N :=
  match more with [] => [] | (b, l) :: r => break_text (brk_of b) ++ l ++ lines_text r end.
Lemma plain_text_lines_text first more : plain_text first more = first ++ lines_text more.
Proof.
  unfold plain_text. revert first. induction more as [|[b l] more IH]; intros first; [cbn; rewrite app_nil_r; reflexivity|].
  cbn [map fold_lines lines_text fst snd]. rewrite IH. reflexivity.
Qed.

Lemma fold_rest_cons k l r : r <> [] ->
  fold_rest k (l :: r) = match drop_leading l with
                         | [] => fold_rest (S k) r
                         | _ => break_text (Folded k) ++ drop_trailing (drop_leading l) ++ fold_rest 0 r
                         end.
Proof. destruct r; [contradiction|reflexivity]. Qed.

Lemma fold_rest_empties : forall es k ls, Forall (fun e => forallb is_sp e = true) es -> ls <> [] ->
  fold_rest k (es ++ ls) = fold_rest (length es + k) ls.
Proof.
  induction es as [|e es IH]; intros k ls H Hne; [reflexivity|]. inversion H as [|? ? He Hes]; subst.
  cbn [app]. rewrite fold_rest_cons.
  2:{ intros E. apply app_eq_nil in E. destruct E as [_ E]. contradiction. }
  rewrite drop_leading_all by exact He. rewrite IH by assumption. f_equal. cbn [length]. lia.
Qed.

Lemma fold_rest_lines : forall more k ind l,
  forallb is_sp ind = true -> text_line l -> Forall (fun p => brk_ok (fst p) /\ text_line (snd p)) more ->
  fold_rest k (lines_of (ind ++ l) more) = break_text (Folded k) ++ l ++ lines_text more.
Proof.
  induction more as [|[b l'] more IH]; intros k ind l Hi [Hne [Hh [Hl Hnl]]] H.
  - cbn [lines_of fold_rest lines_text]. rewrite drop_leading_line by assumption. rewrite app_nil_r. reflexivity.
  - inversion H as [|? ? [[He [Hp [Hes [Hi' _]]]] Hl'] Hmore]; subst. cbn [fst snd] in *.
    cbn [lines_of lines_text].
    assert (Hr : bl_empties b ++ lines_of (bl_indent b ++ l') more <> []).
    { intros E. apply app_eq_nil in E. destruct E as [_ E]. exact (lines_of_ne _ _ E). }
    rewrite fold_rest_cons by exact Hr. rewrite <- (app_assoc ind l (bl_pad b)). rewrite drop_leading_line; [|exact Hi| |].
    2:{ destruct l; [contradiction|discriminate]. }
    2:{ destruct l; [contradiction|exact Hh]. }
    rewrite drop_trailing_pad by assumption.
    destruct (l ++ bl_pad b) as [|c0 r0] eqn:E2; [destruct l; [contradiction|discriminate E2]|].
    rewrite fold_rest_empties by (try exact Hes; apply lines_of_ne).
    rewrite IH by assumption. unfold brk_of. rewrite He. rewrite Nat.add_0_r. rewrite <- ?app_assoc. reflexivity.
Qed.

Theorem fold_physical_presentation first more :
  text_line first -> Forall (fun p => brk_ok (fst p) /\ text_line (snd p)) more ->
  fold_physical (split_lf [] (first ++ src_of more)) = first ++ lines_text more.
Proof.
  intros [Hne [Hh [Hl Hnl]]] H. rewrite split_presentation by assumption.
  destruct more as [|[b l] more].
  - cbn [lines_of fold_physical lines_text]. rewrite app_nil_r. reflexivity.
  - inversion H as [|? ? [[He [Hp [Hes [Hi _]]]] Hl'] Hmore]; subst. cbn [fst snd] in *.
    cbn [lines_of lines_text].
    assert (Hr : bl_empties b ++ lines_of (bl_indent b ++ l) more <> []).
    { intros E. apply app_eq_nil in E. destruct E as [_ E]. exact (lines_of_ne _ _ E). }
    destruct (bl_empties b ++ lines_of (bl_indent b ++ l) more) as [|x y] eqn:E; [contradiction|].
    unfold fold_physical. rewrite drop_trailing_pad by assumption. rewrite <- E.
    rewrite fold_rest_empties by (try exact Hes; apply lines_of_ne).
    rewrite fold_rest_lines by assumption. unfold brk_of. rewrite He. rewrite Nat.add_0_r. reflexivity.
Qed.

(* well-formed plain presentations satisfy the hypotheses *)
Lemma plain_chars_no_lf flow : forall l prev, plain_line_chars_wf flow prev l = true -> no_lf l.
Proof.
  induction l as [|c l IH]; intros prev H; [constructor|]. cbn [plain_line_chars_wf] in H. apply andb_prop in H. destruct H as [Hc H].
  constructor; [|exact (IH c H)]. intros ->. vm_compute in Hc. destruct flow; discriminate Hc.
Qed.
Lemma plain_line_text flow l : plain_line_wf flow l = true -> text_line l.
Proof.
  unfold plain_line_wf. destruct l as [|c l]; [discriminate|]. intros H.
  apply andb_prop in H. destruct H as [H Hch]. apply andb_prop in H. destruct H as [H0 Hl].
  apply negb_true_iff in H0, Hl. repeat split; [discriminate|exact H0|exact Hl|exact (plain_chars_no_lf flow _ _ Hch)].
Qed.
Lemma brk_wf_ok n b : brk_wf n b = true -> bl_escaped b = false -> bl_nl b = NlLF -> brk_ok b.
Proof.
  unfold brk_wf. intros H He Hnl. do 3 (apply andb_prop in H; destruct H as [H ?]).
  repeat split; [exact He|exact H| | |exact Hnl].
  - match goal with H : forallb (empty_wf n) _ = true |- _ => rename H into Hes end.
    apply Forall_forall. intros e Hin. pose proof (proj1 (forallb_forall _ _) Hes e Hin) as Hw.
    unfold empty_wf, indent_wf in Hw. apply orb_prop in Hw. destruct Hw as [Hw|Hw]; apply andb_prop in Hw; destruct Hw as [Hw _]; [exact Hw|].
    clear -Hw. induction e as [|c e IH]; [reflexivity|]. cbn [forallb] in *. apply andb_prop in Hw. destruct Hw as [Hc Hw].
    apply N.eqb_eq in Hc. subst c. rewrite IH by exact Hw. reflexivity.
  - match goal with H : indent_wf n _ = true |- _ => unfold indent_wf in H; apply andb_prop in H; destruct H as [H _]; exact H end.
Qed.

Lemma src_of_render first more : plain_render first more = first ++ src_of more.
Proof.
  unfold plain_render. f_equal. induction more as [|[b l] more IH]; [reflexivity|].
  cbn [flat_map src_of fst snd]. rewrite IH, <- app_assoc. reflexivity.
Qed.

(* the text of a well-formed presentation of a plain scalar is the folding of the physical lines of its source *)
Theorem plain_text_is_physical_folding flow n first more :
  plain_layout_wf flow n first more = true -> forallb (fun p => nl_is_lf (bl_nl (fst p))) more = true ->
  fold_physical (split_lf [] (plain_render first more)) = plain_text first more.
Proof.
  unfold plain_layout_wf. intros H Hlf. apply andb_prop in H. destruct H as [H Hmore]. apply andb_prop in H. destruct H as [_ Hline].
  rewrite src_of_render, plain_text_lines_text. apply fold_physical_presentation; [exact (plain_line_text flow first Hline)|].
  apply Forall_forall. intros [b l] Hin. pose proof (proj1 (forallb_forall _ _) Hmore (b, l) Hin) as Hw. cbn [fst snd] in *.
  do 3 (apply andb_prop in Hw; destruct Hw as [Hw ?]).
  match goal with H : negb (bl_escaped b) = true |- _ => apply negb_true_iff in H; rename H into He end.
  pose proof (proj1 (forallb_forall _ _) Hlf (b, l) Hin) as Hk. cbn [fst] in Hk.
  split; [apply (brk_wf_ok n b Hw He); destruct (bl_nl b); [reflexivity|discriminate Hk|discriminate Hk]|]. eapply plain_line_text. eassumption.
Qed.
