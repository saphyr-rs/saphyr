(* C11 — the nesting of the token stream the scanner delivers is bounded by a CONSTANT, for EVERY input (any Input
   back-end, any fuel): [tok_nest_max] (+1 at every collection-start token: block or flow, synthetic or not; -1 at every
   collection-end token) of every scanned token stream is at most
       NEST_TOK_MAX = BLOCK_NESTING_MAX + 3 * FLOW_LEVEL_MAX + 1.
   Invariant [J] (part 2), carried through every function of the scanner model:
     (J1) the collection-start tokens delivered or queued and not yet matched by an end token number at most
            #(block entries of sc_indents) + sc_flow_level + #(ImInside entries of sc_ifms)
          — roll_indent pushes one start token per pushed block indent (and fails at BLOCK_NESTING_MAX), unroll_indent one
          BlockEnd per popped block indent; fetch_flow_collection_start one '[' / '{' token per flow level;
          fetch_value one synthetic FlowMappingStart per ImPossible -> ImInside transition (/repo 597a354);
     (J2) for EVERY prefix A of the stream:  open(A) + #(possible simple keys saved at a position <= |A|) <= NEST_TOK_MAX
          — a start token is INSERTED into the queue (insert_token) only at the position of the top simple key, which is
          then spent; this is the allowance that pays for the shift of everything queued behind that position;
     (J3) the saved positions of possible simple keys are ordered along the stack and lie within the stream;
     (J4) the three stacks are within their limits.
   The skeleton facts (one simple key per flow level + 1) come from Proofs/DocScan.v (C15), the frame property of the
   character-level scanners from Proofs/ScanFrame.v, the kind of token they return from Proofs/ScanLeaf.v. *)
From Coq Require Import List NArith ZArith Bool Lia PeanoNat.
Import ListNotations.
Require Import Parser SBase SPrim SDir SScalar SFetch Drivers Depth DepthTok ScanFrame DocScan ScanLeaf.
Require DispatchTie.
Local Open Scope nat_scope.

(* 1. pure facts: the running count, insertion, the allowance *)
Lemma next_mono c c' t : c <= c' -> tok_nest_next c t <= tok_nest_next c' t.
Proof. unfold tok_nest_next. destruct (tok_open t); [lia|]. destruct (tok_close t); lia. Qed.
Lemma next_lip c t : tok_nest_next (S c) t <= S (tok_nest_next c t).
Proof. unfold tok_nest_next. destruct (tok_open t); [lia|]. destruct (tok_close t); lia. Qed.
Lemma next_nonopen c t : tok_open t = false -> tok_nest_next c t <= c.
Proof. unfold tok_nest_next. intros ->. destruct (tok_close t); lia. Qed.
Lemma next_plain c t : tok_open t = false -> tok_close t = false -> tok_nest_next c t = c.
Proof. unfold tok_nest_next. intros -> ->. reflexivity. Qed.
Lemma next_open c t : tok_open t = true -> tok_nest_next c t = S c.
Proof. unfold tok_nest_next. intros ->. reflexivity. Qed.
Lemma next_close c t : tok_open t = false -> tok_close t = true -> tok_nest_next c t = Nat.pred c.
Proof. unfold tok_nest_next. intros -> ->. reflexivity. Qed.

Lemma cnt_mono l : forall c c', c <= c' -> cnt c l <= cnt c' l.
Proof. unfold cnt. induction l as [|t r IH]; intros c c' H; cbn; [exact H|]. apply IH. apply next_mono. exact H. Qed.
Lemma cnt_lip l : forall c, cnt (S c) l <= S (cnt c l).
Proof.
  unfold cnt. induction l as [|t r IH]; intros c; cbn; [lia|].
  etransitivity; [|apply IH]. apply cnt_mono. apply next_lip.
Qed.
Lemma cnt_snoc c l t : cnt c (l ++ [t]) = tok_nest_next (cnt c l) (snd t).
Proof. rewrite cnt_app. reflexivity. Qed.
Lemma cnt_cons c t l : cnt c (t :: l) = cnt (tok_nest_next c (snd t)) l.
Proof. reflexivity. Qed.

Lemma nest_max_le C l : forall c m, m <= C -> (forall A B, l = A ++ B -> cnt c A <= C) -> snd (tok_nest_run l (c, m)) <= C.
Proof.
  induction l as [|t r IH]; intros c m Hm H; [exact Hm|].
  unfold tok_nest_run. cbn [fold_left]. unfold tok_nest_step at 2. cbn [fst snd]. apply IH.
  - pose proof (H [t] r eq_refl) as H1. cbn in H1. lia.
  - intros A B E. specialize (H (t :: A) B). rewrite E in H. specialize (H eq_refl). exact H.
Qed.

Lemma insert_at_split {A} (x : A) : forall n l l', insert_at n x l = Some l' ->
  exists a b, l = a ++ b /\ l' = a ++ x :: b /\ length a = n.
Proof.
  induction n as [|n IH]; intros l l' E.
  - cbn in E. inversion E; subst. exists [], l. auto.
  - destruct l as [|y r]; cbn in E; [discriminate|]. destruct (insert_at n x r) as [r'|] eqn:E2; [|discriminate].
    inversion E; subst. destruct (IH _ _ E2) as (a & b & -> & -> & HL). exists (y :: a), b. cbn. auto.
Qed.

Lemma insert_at_app {A} (x : A) (pre : list A) : forall n l,
  insert_at (length pre + n) x (pre ++ l) = match insert_at n x l with Some l' => Some (pre ++ l') | None => None end.
Proof.
  induction pre as [|y r IH]; intros n l; cbn [length app Nat.add]; [destruct (insert_at n x l); reflexivity|].
  cbn [insert_at]. rewrite IH. destruct (insert_at n x l); reflexivity.
Qed.

Lemma app_split_ins {A} (x : A) b : forall a A' B', A' ++ B' = a ++ x :: b ->
  (exists E, a = A' ++ E /\ B' = E ++ x :: b) \/ (exists D, A' = a ++ x :: D /\ b = D ++ B').
Proof.
  induction a as [|z a IH]; intros A' B' E.
  - destruct A' as [|y A'']; cbn in E.
    + left. exists []. auto.
    + inversion E; subst. right. exists A''. auto.
  - destruct A' as [|y A'']; cbn in E.
    + left. exists (z :: a). auto.
    + inversion E; subst. destruct (IH _ _ H1) as [(E' & -> & ->)|(D & -> & ->)].
      * left. exists E'. auto.
      * right. exists D. auto.
Qed.

Lemma app_split_snoc {A} (x : A) L A' B' : L ++ [x] = A' ++ B' ->
  (exists B'', L = A' ++ B'' /\ B' = B'' ++ [x]) \/ (A' = L ++ [x] /\ B' = []).
Proof.
  revert B'. apply (rev_ind (fun B' => L ++ [x] = A' ++ B' ->
    (exists B'', L = A' ++ B'' /\ B' = B'' ++ [x]) \/ (A' = L ++ [x] /\ B' = []))).
  - intros E. right. rewrite app_nil_r in E. auto.
  - intros b B'' _ E. left. rewrite app_assoc in E. apply app_inj_tail in E. destruct E as [E1 E2]. subst. exists B''. auto.
Qed.

(* simple keys: saved position, the allowance [phi], order *)
Definition kpos (k : simple_key) : nat := N.to_nat (sk_token_number k).
Definition kcount (i : nat) (k : simple_key) : bool := sk_possible k && (kpos k <=? i).
Definition phi (sks : list simple_key) (i : nat) : nat := length (filter (kcount i) sks).
Definition np (sks : list simple_key) : nat := length (filter sk_possible sks).
Fixpoint sk_ok (n : nat) (sks : list simple_key) : Prop :=
  match sks with
  | [] => True
  | k :: r => if sk_possible k then kpos k <= n /\ sk_ok (kpos k) r else sk_ok n r
  end.
Definition eff (kt : bool) (sks : list simple_key) : list simple_key := if kt then tl sks else sks.
Definition kill (k : simple_key) : simple_key :=
  {| sk_possible := false; sk_required := sk_required k; sk_token_number := sk_token_number k; sk_mark := sk_mark k |}.

Lemma phi_cons k r i : phi (k :: r) i = (if kcount i k then 1 else 0) + phi r i.
Proof. unfold phi. cbn. destruct (kcount i k); reflexivity. Qed.
Lemma phi_le_len sks i : phi sks i <= length sks.
Proof. induction sks as [|k r IH]; [cbn; lia|]. rewrite phi_cons. cbn [length]. destruct (kcount i k); lia. Qed.
Lemma phi_tl_le sks i : phi (tl sks) i <= phi sks i.
Proof. destruct sks as [|k r]; [apply le_n|]. rewrite phi_cons. cbn [tl]. lia. Qed.
Lemma phi_eff_le kt sks i : phi (eff kt sks) i <= phi sks i.
Proof. destruct kt; [apply phi_tl_le|apply le_n]. Qed.
Lemma phi_all sks i : (forall k, In k sks -> sk_possible k = true -> kpos k <= i) -> phi sks i = np sks.
Proof.
  unfold phi, np. induction sks as [|k r IH]; intros H; [reflexivity|]. cbn. unfold kcount at 1.
  destruct (sk_possible k) eqn:E; cbn.
  - assert (kpos k <= i) by (apply H; [left; reflexivity|exact E]). apply Nat.leb_le in H0. rewrite H0. cbn.
    f_equal. apply IH. intros k' Hk. apply H. right. exact Hk.
  - apply IH. intros k' Hk. apply H. right. exact Hk.
Qed.

Lemma sk_ok_mono sks : forall n n', n <= n' -> sk_ok n sks -> sk_ok n' sks.
Proof.
  induction sks as [|k r IH]; intros n n' H; cbn; [auto|]. destruct (sk_possible k); [intros [A B]; split; [lia|exact B]|apply IH; exact H].
Qed.
Lemma sk_ok_tl n k r : sk_ok n (k :: r) -> sk_ok n r.
Proof. cbn. destruct (sk_possible k); [intros [A B]; eapply sk_ok_mono; eauto|auto]. Qed.
Lemma sk_ok_all sks : forall n, sk_ok n sks -> forall k, In k sks -> sk_possible k = true -> kpos k <= n.
Proof.
  induction sks as [|k0 r IH]; intros n H k Hin Hp; [destruct Hin|]. destruct Hin as [->|Hin].
  - cbn in H. rewrite Hp in H. apply H.
  - eapply IH; [eapply sk_ok_tl; exact H|exact Hin|exact Hp].
Qed.
Lemma sk_ok_eff kt n sks : sk_ok n sks -> sk_ok n (eff kt sks).
Proof. destruct kt; [|auto]. destruct sks as [|k r]; [auto|apply sk_ok_tl]. Qed.
(* with the top key possible at position p, every possible key below it was saved at a position <= p *)
Lemma sk_ok_below n k r : sk_ok n (k :: r) -> sk_possible k = true ->
  forall k', In k' r -> sk_possible k' = true -> kpos k' <= kpos k.
Proof. cbn. intros H Hp. rewrite Hp in H. destruct H as [_ H]. apply sk_ok_all. exact H. Qed.

(* [wk sks sks']: same positions, fewer possible keys *)
Definition wk1 (k k' : simple_key) : Prop := kpos k' = kpos k /\ (sk_possible k' = true -> sk_possible k = true).
Definition wk := Forall2 wk1.
Lemma wk_refl sks : wk sks sks.
Proof. induction sks; constructor; [split; auto|assumption]. Qed.
Lemma wk1_kill k : wk1 k (kill k).
Proof. split; [reflexivity|cbn; discriminate]. Qed.
Lemma wk_phi sks sks' i : wk sks sks' -> phi sks' i <= phi sks i.
Proof.
  induction 1 as [|k k' r r' [H1 H2] _ IH]; [apply le_n|]. rewrite !phi_cons. unfold kcount. rewrite H1.
  destruct (sk_possible k') eqn:E; [rewrite (H2 eq_refl); cbn; destruct (_ <=? _); lia|cbn].
  destruct (sk_possible k && _); lia.
Qed.
Lemma wk_tl sks sks' : wk sks sks' -> wk (tl sks) (tl sks').
Proof. destruct 1; [constructor|assumption]. Qed.
Lemma wk_sk_ok sks sks' : wk sks sks' -> forall n, sk_ok n sks -> sk_ok n sks'.
Proof.
  induction 1 as [|k k' r r' [H1 H2] _ IH]; intros n H; [exact I|]. cbn. destruct (sk_possible k') eqn:E.
  - cbn in H. rewrite (H2 eq_refl) in H. rewrite H1. destruct H as [A B]. split; [exact A|apply IH; exact B].
  - apply IH. eapply sk_ok_tl. exact H.
Qed.
Lemma wk_map (f : simple_key -> simple_key) sks : (forall k, wk1 k (f k)) -> wk sks (map f sks).
Proof. intros H. induction sks; constructor; auto. Qed.

(* the state weight and the invariant over a VIEW of the state *)
Definition is_inside (st : ims) : bool := match st with ImInside => true | _ => false end.
Definition ni (l : list ims) : nat := length (filter is_inside l).
Definition nb (l : list indent_rec) : nat := length (filter in_needs_block_end l).
Definition NB : nat := N.to_nat BLOCK_NESTING_MAX.
Definition NF : nat := N.to_nat FLOW_LEVEL_MAX.
Definition NEST_TOK_MAX : nat := NB + 3 * NF + 1.
Definition cur (nbv : nat) (fl : N) (ifms : list ims) : Z := (Z.of_nat nbv + Z.of_N fl + Z.of_nat (ni ifms))%Z.

Lemma ni_le l : ni l <= length l.
Proof. unfold ni. induction l as [|x r IH]; cbn; [lia|]. destruct (is_inside x); cbn; lia. Qed.
Lemma nb_le l : nb l <= length l.
Proof. unfold nb. induction l as [|x r IH]; cbn; [lia|]. destruct (in_needs_block_end x); cbn; lia. Qed.

Definition JV (d : Z) (kt : bool) (e : Z) (L : list token) (sks : list simple_key) (nbv : nat) (fl : N) (ifms : list ims) : Prop :=
  (Z.of_nat (cnt 0 L) <= cur nbv fl ifms + d)%Z
  /\ (forall A B, L = A ++ B -> cnt 0 A + phi (eff kt sks) (length A) <= NEST_TOK_MAX)
  /\ sk_ok (length L) sks
  /\ nbv <= NB /\ (fl <= FLOW_LEVEL_MAX)%N /\ (Z.of_nat (length ifms) <= Z.of_N fl + e)%Z.

Ltac jv_split := unfold JV; split; [|split; [|split]].

Lemma cur_bound nbv fl ifms e : nbv <= NB -> (fl <= FLOW_LEVEL_MAX)%N -> (Z.of_nat (length ifms) <= Z.of_N fl + e)%Z -> (e <= 0)%Z ->
  (cur nbv fl ifms <= Z.of_nat (NB + 2 * NF))%Z.
Proof. intros H1 H2 H3 H4. unfold cur, NF. pose proof (ni_le ifms). lia. Qed.

(* state changes that do not touch tokens or keys *)
Lemma JV_state d kt e L sks nbv fl ifms d' e' nbv' fl' ifms' :
  JV d kt e L sks nbv fl ifms ->
  (cur nbv fl ifms + d <= cur nbv' fl' ifms' + d')%Z -> nbv' <= NB -> (fl' <= FLOW_LEVEL_MAX)%N ->
  (Z.of_nat (length ifms') <= Z.of_N fl' + e')%Z ->
  JV d' kt e' L sks nbv' fl' ifms'.
Proof. intros (A & B & C & _) H1 H2 H3 H4. jv_split; [lia|exact B|exact C|auto]. Qed.

(* the key stack changes, the allowance does not grow *)
Lemma JV_sks d kt e L sks sks' nbv fl ifms :
  (forall i, phi (eff kt sks') i <= phi (eff kt sks) i) -> (forall n, sk_ok n sks -> sk_ok n sks') ->
  JV d kt e L sks nbv fl ifms -> JV d kt e L sks' nbv fl ifms.
Proof.
  intros H1 H2 (A & B & C & D). jv_split; [exact A| |auto|exact D].
  intros A' B' E. specialize (B A' B' E). specialize (H1 (length A')). lia.
Qed.

Lemma JV_kt_weaken d e L sks nbv fl ifms : JV d false e L sks nbv fl ifms -> JV d true e L sks nbv fl ifms.
Proof.
  intros (A & B & C). jv_split; [exact A| |apply C|apply C].
  intros A' B' E. specialize (B A' B' E). pose proof (phi_tl_le sks (length A')). cbn [eff] in *. lia.
Qed.

(* the top key is spent (fetch_value) *)
Lemma JV_kill d e L k r nbv fl ifms : JV d true e L (k :: r) nbv fl ifms -> JV d false e L (kill k :: r) nbv fl ifms.
Proof.
  intros (A & B & C & D). jv_split; [exact A| | |exact D].
  - intros A' B' E. specialize (B A' B' E). cbn [eff tl] in *. rewrite phi_cons. unfold kcount. cbn. exact B.
  - cbn. eapply sk_ok_tl. exact C.
Qed.

(* a token that is not a collection start is pushed at the end of the queue *)
Lemma JV_push_nonopen d kt e L sks nbv fl ifms t :
  tok_open (snd t) = false -> JV d kt e L sks nbv fl ifms -> JV d kt e (L ++ [t]) sks nbv fl ifms.
Proof.
  intros Ht (A & B & C & D). pose proof (next_nonopen (cnt 0 L) (snd t) Ht) as HN.
  jv_split; [| | |exact D].
  - rewrite cnt_snoc. lia.
  - intros A' B' E. destruct (app_split_snoc _ _ _ _ E) as [(B'' & -> & _)|[-> _]].
    + eapply B. reflexivity.
    + rewrite cnt_snoc. specialize (B L [] (eq_sym (app_nil_r L))).
      assert (HP : forall i, length L <= i -> phi (eff kt sks) i = np (eff kt sks)).
      { intros i Hi. apply phi_all. intros k Hk Hp. pose proof (sk_ok_all _ _ (sk_ok_eff kt _ _ C) k Hk Hp). lia. }
      rewrite HP in B by apply le_n. rewrite HP by (rewrite app_length; cbn; lia). lia.
  - rewrite app_length. eapply sk_ok_mono; [|exact C]. lia.
Qed.

(* a collection end is pushed after the state has lost the level it closes *)
Lemma JV_push_close d kt e L sks nbv fl ifms t :
  tok_open (snd t) = false -> tok_close (snd t) = true -> (0 <= cur nbv fl ifms + d)%Z ->
  JV (d + 1) kt e L sks nbv fl ifms -> JV d kt e (L ++ [t]) sks nbv fl ifms.
Proof.
  intros Ho Hc H0 HJ. pose proof (JV_push_nonopen _ _ _ _ _ _ _ _ t Ho HJ) as (A & B).
  split; [|exact B]. rewrite cnt_snoc, next_close by assumption. destruct HJ as (A' & _). lia.
Qed.

(* a collection start is pushed at the end of the queue after the state has gained its level *)
Lemma JV_push_open d e L sks nbv fl ifms t :
  tok_open (snd t) = true -> (d <= -1)%Z -> (e <= 0)%Z -> length sks <= N.to_nat fl + 1 ->
  JV d false e L sks nbv fl ifms -> JV (d + 1) false e (L ++ [t]) sks nbv fl ifms.
Proof.
  intros Ht Hd He Hs (A & B & C & D1 & D2 & D3).
  jv_split; [| | |auto].
  - rewrite cnt_snoc, next_open by exact Ht. lia.
  - intros A' B' E. destruct (app_split_snoc _ _ _ _ E) as [(B'' & -> & _)|[-> _]].
    + eapply B. reflexivity.
    + rewrite cnt_snoc, next_open by exact Ht. cbn [eff].
      match goal with |- context [phi ?s ?i] => pose proof (phi_le_len s i) end. pose proof (cur_bound _ _ _ _ D1 D2 D3 He).
      unfold NEST_TOK_MAX. unfold NF in *. lia.
  - rewrite app_length. eapply sk_ok_mono; [|exact C]. lia.
Qed.

(* insertion at the position of the top key (possible, saved at |a|), of a token that is neither start nor end *)
Lemma JV_insert_plain d kt e a b sks nbv fl ifms t :
  tok_open (snd t) = false -> tok_close (snd t) = false ->
  (forall k, In k (eff kt sks) -> sk_possible k = true -> kpos k <= length a) ->
  JV d kt e (a ++ b) sks nbv fl ifms -> JV d kt e (a ++ t :: b) sks nbv fl ifms.
Proof.
  intros Ho Hc Hk (A & B & C & D).
  assert (EC : forall c, cnt c (a ++ t :: b) = cnt c (a ++ b)).
  { intros c. rewrite !cnt_app, cnt_cons, next_plain by assumption. reflexivity. }
  jv_split; [| | |exact D].
  - rewrite EC. exact A.
  - intros A' B' E. destruct (app_split_ins _ _ _ _ _ (eq_sym E)) as [(E' & -> & ->)|(D' & -> & ->)].
    + eapply (B A' (E' ++ b)). rewrite app_assoc. reflexivity.
    + specialize (B (a ++ D') B'). rewrite <- app_assoc in B. specialize (B eq_refl).
      rewrite !cnt_app, cnt_cons, next_plain by assumption. rewrite cnt_app in B.
      assert (HP : forall i, length a <= i -> phi (eff kt sks) i = np (eff kt sks)).
      { intros i Hi. apply phi_all. intros k Hin Hp. specialize (Hk k Hin Hp). lia. }
      rewrite HP in B by (rewrite app_length; lia). rewrite HP by (rewrite app_length; lia). exact B.
  - eapply sk_ok_mono; [|exact C]. rewrite !app_length. cbn. lia.
Qed.

(* insertion of a collection start at the position of the top key, which is spent by it *)
Lemma JV_insert_open d e a b k r nbv fl ifms t :
  tok_open (snd t) = true -> sk_possible k = true -> kpos k = length a ->
  JV d false e (a ++ b) (k :: r) nbv fl ifms -> JV (d + 1) true e (a ++ t :: b) (k :: r) nbv fl ifms.
Proof.
  intros Ho Hp Hk (A & B & C & D).
  pose proof (sk_ok_below _ _ _ C Hp) as HB.
  jv_split; [| | |exact D].
  - rewrite cnt_app, cnt_cons, next_open by exact Ho. rewrite cnt_app in A.
    pose proof (cnt_lip b (cnt 0 a)). lia.
  - intros A' B' E. cbn [eff tl]. destruct (app_split_ins _ _ _ _ _ (eq_sym E)) as [(E' & -> & ->)|(D' & -> & ->)].
    + specialize (B A' (E' ++ b)). rewrite app_assoc in B. specialize (B eq_refl). cbn [eff] in B.
      rewrite phi_cons in B. lia.
    + specialize (B (a ++ D') B'). rewrite <- app_assoc in B. specialize (B eq_refl). cbn [eff] in B.
      rewrite cnt_app, cnt_cons, next_open by exact Ho. rewrite cnt_app in B.
      pose proof (cnt_lip D' (cnt 0 a)).
      assert (HP : forall i, length a <= i -> phi r i = np r).
      { intros i Hi. apply phi_all. intros k' Hin Hp'. specialize (HB k' Hin Hp'). lia. }
      rewrite phi_cons in B. unfold kcount in B. rewrite Hp, Hk in B. cbn [andb] in B.
      assert (EL : (length a <=? length (a ++ D')) = true) by (apply Nat.leb_le; rewrite app_length; lia).
      rewrite EL in B. rewrite HP in B by (rewrite app_length; lia). rewrite HP by (rewrite !app_length; cbn; lia). lia.
  - eapply sk_ok_mono; [|exact C]. rewrite !app_length. cbn. lia.
Qed.

(* save_simple_key: the top slot receives a possible key saved at the end of the stream *)
Lemma JV_save d e L k0 k r nbv fl ifms :
  kpos k = length L -> (d <= 0)%Z -> (e <= 0)%Z -> length (k0 :: r) <= N.to_nat fl + 1 ->
  JV d false e L (k0 :: r) nbv fl ifms -> JV d false e L (k :: r) nbv fl ifms.
Proof.
  intros Hk Hd He Hs (A & B & C & D1 & D2 & D3). jv_split; [exact A| | |auto].
  - intros A' B' E. cbn [eff]. destruct (Nat.eq_dec (length A') (length L)) as [EL|NL].
    + match goal with |- context [phi ?s ?i] => pose proof (phi_le_len s i) end. pose proof (cur_bound _ _ _ _ D1 D2 D3 He).
      assert (A' = L).
      { subst L. rewrite app_length in EL. destruct B'; [rewrite app_nil_r; reflexivity|cbn in EL; lia]. }
      subst A'. cbn [length] in *. unfold NEST_TOK_MAX, NF in *. lia.
    + specialize (B A' B' E). cbn [eff] in B. rewrite phi_cons in *. unfold kcount at 1.
      assert (length A' < length L) by (subst L; rewrite app_length in *; lia).
      replace (kpos k <=? length A') with false by (symmetry; apply Nat.leb_gt; lia). rewrite andb_false_r. lia.
  - cbn. destruct (sk_possible k); [split; [lia|]; rewrite Hk|]; eapply sk_ok_tl; exact C.
Qed.

(* 2. the invariant over scanner states, and the judgment *)
Section Scan.
Context {I : Type} (ops : InputOps I).
Notation M := (@M I).
Notation st := (sc I).

(* [pre] = the tokens already delivered; indices: [d] slack of (J1) between a change of the stacks and the push of the
   token that goes with it; [kt] = the top simple key counts as spent in (J2) (between the insertion of a start token
   at its position and the update of the key by fetch_value); [e] slack between flow_level and the depth of sc_ifms *)
Definition J (pre : list token) (d : Z) (kt : bool) (e : Z) (s : st) : Prop :=
  length pre = N.to_nat (sc_tokens_parsed s)
  /\ JV d kt e (pre ++ sc_tokens s) (sc_sks s) (nb (sc_indents s)) (sc_flow_level s) (sc_ifms s).
Definition JB (pre : list token) (d : Z) (kt : bool) (e : Z) (s : st) : Prop := SkB s /\ J pre d kt e s.
Definition kj {A} (m : M A) (d : Z) (kt : bool) (e : Z) (d' : Z) (kt' : bool) (e' : Z) : Prop :=
  forall pre, Tr (JB pre d kt e) m (fun _ => JB pre d' kt' e').

Lemma kj_bind {A B} (m : M A) (f : A -> M B) d1 k1 e1 d2 k2 e2 d3 k3 e3 :
  kj m d1 k1 e1 d2 k2 e2 -> (forall a, kj (f a) d2 k2 e2 d3 k3 e3) -> kj (bind m f) d1 k1 e1 d3 k3 e3.
Proof. intros Hm Hf pre. eapply Tr_bind; [apply Hm|intros a; apply Hf]. Qed.
Lemma kj_fail {A} x mk d k e d' k' e' : kj (@fail I A x mk) d k e d' k' e'.
Proof. intros pre s a s' _ E. discriminate. Qed.
Lemma kj_panic {A} n d k e d' k' e' : kj (@panic I A n) d k e d' k' e'.
Proof. intros pre s a s' _ E. discriminate. Qed.
Lemma kj_oof {A} d k e d' k' e' : kj (@oof I A) d k e d' k' e'.
Proof. intros pre s a s' _ E. discriminate. Qed.

Lemma kj_intro {A} (m : M A) d k e d' k' e' :
  Keepk m -> (forall pre s a s', m s = Ok (a, s') -> SkB s -> J pre d k e s -> J pre d' k' e' s') -> kj m d k e d' k' e'.
Proof. intros HK HJ pre s a s' [HB H] E. split; [apply (HK _ _ _ HB E)|eapply HJ; eauto]. Qed.

(* J looks at the state through tokens, tokens_parsed, the key stack, the number of block indents, the flow level and
   the implicit-flow-mapping stack *)
Lemma J_view pre d kt e (s s' : st) :
  sc_tokens s' = sc_tokens s -> sc_tokens_parsed s' = sc_tokens_parsed s -> sc_sks s' = sc_sks s ->
  sc_flow_level s' = sc_flow_level s -> sc_ifms s' = sc_ifms s -> nb (sc_indents s') = nb (sc_indents s) ->
  J pre d kt e s -> J pre d kt e s'.
Proof. intros E1 E2 E3 E4 E5 E6. unfold J. rewrite E1, E2, E3, E4, E5, E6. auto. Qed.

Lemma nb_unroll_nb l : forall ind, nb (snd (unroll_nb l ind)) = nb l.
Proof.
  induction l as [|i r IH]; intros ind; cbn [unroll_nb]; [reflexivity|].
  destruct (in_needs_block_end i) eqn:E; cbn [snd]; [reflexivity|]. rewrite IH. unfold nb. cbn. rewrite E. reflexivity.
Qed.

Lemma J_frame pre d k e (s s' : st) : frame s s' -> J pre d k e s -> J pre d k e s'.
Proof.
  intros (F1 & F2 & F3 & F4 & F5 & _ & _ & _ & _ & _ & F11) HJ. eapply J_view; [..|exact HJ]; auto.
  destruct F11 as [Fx|Fx]; cbn [fst snd] in Fx.
  - inversion Fx as [[Fa Fb]]. rewrite Fb. reflexivity.
  - pose proof (nb_unroll_nb (sc_indents s) (sc_indent s)) as HN. rewrite <- Fx in HN. exact HN.
Qed.

Lemma kj_Fr {A} (m : M A) d k e : Fr m -> kj m d k e d k e.
Proof.
  intros HF. apply kj_intro; [apply Keepk_of_Fr; exact HF|].
  intros pre s a s' E _ HJ. exact (J_frame _ _ _ _ _ _ (HF _ _ _ E) HJ).
Qed.

(* updates outside the view *)
Lemma kj_modify_view (f : st -> st) d k e :
  (forall s, vsame s (f s) /\ sc_tokens (f s) = sc_tokens s /\ sc_tokens_parsed (f s) = sc_tokens_parsed s) ->
  kj (modify f) d k e d k e.
Proof.
  intros Hf. apply kj_intro; [apply Keepk_modify; intros s; apply Hf|].
  intros pre s a s' E _ HJ. inversion E; subst. destruct (Hf s) as ((V1 & V2 & V3 & V4 & V5 & V6) & T1 & T2).
  eapply J_view; [..|exact HJ]; auto. rewrite V6. reflexivity.
Qed.
Lemma kj_allow d k e : kj (@allow_simple_key I) d k e d k e.
Proof. apply kj_modify_view. intros s. unfold vsame; cbn. auto 10. Qed.
Lemma kj_disallow d k e : kj (@disallow_simple_key I) d k e d k e.
Proof. apply kj_modify_view. intros s. unfold vsame; cbn. auto 10. Qed.

Ltac vw := cbn [sc_tokens sc_tokens_parsed sc_sks sc_indents sc_indent sc_flow_level sc_ifms sc_stream_start sc_mark sc_ska
                 set_tokens set_sks set_indent set_fl set_tp set_ifms set_struct set_flags set_ta set_se set_ska set_ss set_adj
                 set_lws set_in set_mark upd].
Ltac vwin H := cbn [sc_tokens sc_tokens_parsed sc_sks sc_indents sc_indent sc_flow_level sc_ifms sc_stream_start sc_mark sc_ska
                 set_tokens set_sks set_indent set_fl set_tp set_ifms set_struct set_flags set_ta set_se set_ska set_ss set_adj
                 set_lws set_in set_mark upd] in H.

(* tokens pushed at the end of the queue *)
Lemma kj_push_nonopen t d k e : tok_open (snd t) = false -> kj (@push_tok I t) d k e d k e.
Proof.
  intros Ht. apply kj_intro; [apply Keepk_push_tok|]. intros pre s a s' E _ [J0 HJ].
  unfold push_tok, modify in E. inversion E; subst. split; [exact J0|]. vw. rewrite app_assoc.
  apply JV_push_nonopen; assumption.
Qed.
Lemma cur_nonneg nbv fl ifms : (0 <= cur nbv fl ifms)%Z.
Proof. unfold cur. lia. Qed.
Lemma kj_push_close t k e : tok_open (snd t) = false -> tok_close (snd t) = true -> kj (@push_tok I t) 1 k e 0 k e.
Proof.
  intros Ho Hc. apply kj_intro; [apply Keepk_push_tok|]. intros pre s a s' E _ [J0 HJ].
  unfold push_tok, modify in E. inversion E; subst. split; [exact J0|]. vw. rewrite app_assoc.
  apply JV_push_close; try assumption. rewrite Z.add_0_r. apply cur_nonneg.
Qed.
Lemma kj_push_open t : tok_open (snd t) = true -> kj (@push_tok I t) (-1) false 0 0 false 0.
Proof.
  intros Ho. apply kj_intro; [apply Keepk_push_tok|]. intros pre s a s' E (_ & HL & _) [J0 HJ].
  unfold push_tok, modify in E. inversion E; subst. split; [exact J0|]. vw. rewrite app_assoc.
  change 0%Z with (-1 + 1)%Z at 1. apply JV_push_open; try assumption; lia.
Qed.

(* simple keys *)
(* a successful save_simple_key leaves the state alone or replaces the top slot by a possible key saved at the end of
   the stream *)
Lemma save_simple_key_eff (s : st) a s' :
  save_simple_key s = Ok (a, s') ->
  s' = s \/ exists k, s' = set_sks (k :: tl (sc_sks s)) s /\ sk_possible k = true
                      /\ sk_token_number k = (sc_tokens_parsed s + N.of_nat (length (sc_tokens s)))%N.
Proof.
  intros E. unfold save_simple_key, bind, get, put, ret, panic in E.
  destruct (sc_ska s); [|inversion E; left; reflexivity]. right.
  destruct (_ && _); [destruct (sc_indents s); [discriminate|]|]; inversion E; eexists; repeat split.
Qed.

Lemma kj_save_simple_key : kj (@save_simple_key I) 0 false 0 0 false 0.
Proof.
  apply kj_intro; [apply Keepk_save_simple_key|]. intros pre s a s' E HB HJ.
  destruct (save_simple_key_eff _ _ _ E) as [->|(k & -> & _ & Hk)]; [exact HJ|].
  pose proof (sks_nonempty _ HB) as NE. destruct HB as (_ & HL & _). destruct HJ as [J0 HJ].
  split; [exact J0|]. vw. destruct (sc_sks s) as [|k0 r] eqn:Es; [congruence|]. cbn [tl].
  eapply JV_save; [..|exact HJ]; try lia; try (cbn [length] in *; lia).
  unfold kpos. rewrite Hk, app_length. lia.
Qed.

Lemma J_wk pre d e (s : st) sks' : wk (sc_sks s) sks' -> J pre d false e s -> J pre d false e (set_sks sks' s).
Proof.
  intros W [J0 HJ]. split; [exact J0|]. vw. eapply JV_sks; [..|exact HJ].
  - intros i. cbn [eff]. apply wk_phi. exact W.
  - intros n. apply wk_sk_ok. exact W.
Qed.

Lemma kj_remove_simple_key d e : kj (@remove_simple_key I) d false e d false e.
Proof.
  apply kj_intro; [apply Keepk_remove_simple_key|]. intros pre s a s' E _ HJ.
  unfold remove_simple_key, bind, get, put, fail, panic in E.
  destruct (sc_sks s) as [|k r] eqn:Es; [discriminate|]. destruct (_ && _); [discriminate|].
  inversion E; subst. apply J_wk; [|exact HJ]. rewrite Es. constructor; [apply wk1_kill|apply wk_refl].
Qed.

Lemma stale_J pre d e (s : st) a s' : stale_simple_keys s = Ok (a, s') -> J pre d false e s -> J pre d false e s'.
Proof.
  intros E HJ. unfold stale_simple_keys, bind, get, put, fail in E. destruct (existsb _ _); [discriminate|].
  inversion E; subst. apply J_wk; [|exact HJ]. apply wk_map. intros k.
  destruct (_ && _); [apply wk1_kill|split; auto].
Qed.
Lemma kj_stale_simple_keys d e : kj (@stale_simple_keys I) d false e d false e.
Proof.
  apply kj_intro; [apply Keepk_stale_simple_keys|]. intros pre s a s' E _ HJ. exact (stale_J _ _ _ _ _ _ E HJ).
Qed.

Lemma kj_kill_key d e :
  kj (modify (fun s : st => match sc_sks s with
                            | k :: r => set_sks ({| sk_possible := false; sk_required := sk_required k;
                                                    sk_token_number := sk_token_number k; sk_mark := sk_mark k |} :: r) s
                            | [] => s end)) d true e d false e.
Proof.
  apply kj_intro; [apply Keepk_kill_key|]. intros pre s a s' E _ [J0 HJ]. inversion E; subst.
  destruct (sc_sks s) as [|k r] eqn:Es.
  - split; [exact J0|]. rewrite Es. exact HJ.
  - split; [exact J0|]. vw. apply (JV_kill _ _ _ k r). exact HJ.
Qed.

(* indentation *)
Lemma kj_roll_one_col_indent d k e : kj (@roll_one_col_indent I) d k e d k e.
Proof.
  apply kj_intro; [apply Keepk_roll_one_col_indent|]. intros pre s a s' E _ HJ.
  unfold roll_one_col_indent, bind, get, put, ret in E. destruct (_ && _); inversion E; subst; [|exact HJ].
  eapply J_view; [..|exact HJ]; reflexivity.
Qed.

Lemma nb_cons i r : nb (i :: r) = (if in_needs_block_end i then 1 else 0) + nb r.
Proof. unfold nb. cbn. destruct (in_needs_block_end i); reflexivity. Qed.

Lemma kj_unroll_indent_go fuel col k e : kj (@unroll_indent_go I fuel col) 0 k e 0 k e.
Proof.
  induction fuel as [|fuel IH]; cbn [unroll_indent_go]; [apply kj_oof|].
  intros pre s a s' [HB HJ] E. unfold bind at 1, get at 1 in E.
  destruct (col <? sc_indent s)%Z; [|inversion E; subst; split; assumption].
  destruct (sc_indents s) as [|i r] eqn:EI; [discriminate|].
  unfold bind at 1, put at 1 in E.
  assert (HB1 : SkB (set_indent (in_indent i) r s)).
  { destruct HB as (B1 & B2 & B3). unfold SkB. vw. rewrite EI in B3. cbn in B3. tauto. }
  destruct HJ as [J0 HJ]. rewrite EI, nb_cons in HJ.
  destruct (in_needs_block_end i) eqn:Eb.
  - unfold bind at 1 in E.
    assert (H1 : JB pre 1 k e (set_indent (in_indent i) r s)).
    { split; [exact HB1|]. split; [exact J0|]. vw. eapply JV_state; [exact HJ|..]; try apply HJ.
      - unfold cur. lia.
      - destruct HJ as (_ & _ & _ & D1 & _). lia. }
    destruct (push_tok (span_empty (sc_mark s), TBlockEnd) (set_indent (in_indent i) r s)) as [[u s2]| | |] eqn:E2; try discriminate.
    pose proof (kj_push_close (span_empty (sc_mark s), TBlockEnd) k e eq_refl eq_refl pre _ _ _ H1 E2) as H2.
    eapply IH; [exact H2|exact E].
  - unfold bind at 1, ret at 1 in E. eapply IH; [|exact E]. split; [exact HB1|]. split; [exact J0|]. vw. exact HJ.
Qed.

Lemma kj_unroll_indent col k e : kj (@unroll_indent I col) 0 k e 0 k e.
Proof.
  intros pre s a s' H E. unfold unroll_indent in E. unfold bind at 1, get at 1 in E.
  destruct (0 <? sc_flow_level s)%N; [inversion E; subst; exact H|]. eapply kj_unroll_indent_go; eauto.
Qed.

(* the (indent, indents) pair roll_indent continues with: a non-block entry on top may have been dropped *)
Lemma roll_pair_nb (s : st) col p :
  p = (if (sc_indent s <=? Z.of_N col)%Z
       then match sc_indents s with
            | i :: r => if negb (in_needs_block_end i) then (in_indent i, r) else (sc_indent s, sc_indents s)
            | [] => (sc_indent s, sc_indents s)
            end
       else (sc_indent s, sc_indents s)) -> nb (snd p) = nb (sc_indents s).
Proof.
  intros ->. destruct (_ <=? _)%Z; [|reflexivity]. destruct (sc_indents s) as [|i r]; [reflexivity|].
  destruct (in_needs_block_end i) eqn:E; cbn [negb snd]; [reflexivity|]. rewrite nb_cons, E. reflexivity.
Qed.

(* what a successful roll_indent does: nothing inside a flow collection; else the indent stack keeps its block entries
   ([inds] is sc_indents, or sc_indents without a non-block entry on top) and, if the column is deeper, gains one, below
   the limit, while the token is pushed at the end of the queue or inserted at [number] *)
Lemma roll_indent_eff col number tk mk (s : st) a s' :
  roll_indent col number tk mk s = Ok (a, s') ->
  s' = s \/
  (sc_flow_level s = 0%N /\ exists ind inds, nb inds = nb (sc_indents s) /\
     (s' = set_indent ind inds s \/
      (N.of_nat (length inds) < BLOCK_NESTING_MAX)%N /\
      exists toks, s' = set_tokens toks (set_indent (Z.of_N col) ({| in_indent := ind; in_needs_block_end := true |} :: inds) s) /\
        match number with
        | None => toks = sc_tokens s ++ [(span_empty mk, tk)]
        | Some n => (sc_tokens_parsed s <= n)%N
                    /\ insert_at (N.to_nat (n - sc_tokens_parsed s)) (span_empty mk, tk) (sc_tokens s) = Some toks
        end)).
Proof.
  intros E. unfold roll_indent in E. unfold bind at 1, get at 1 in E.
  destruct (0 <? sc_flow_level s)%N eqn:EF; [inversion E; left; reflexivity|]. apply N.ltb_ge in EF.
  right. split; [lia|].
  pose proof (roll_pair_nb s col _ eq_refl) as HN.
  destruct (if (sc_indent s <=? Z.of_N col)%Z then _ else _) as [ind inds]. cbn [snd] in HN.
  exists ind, inds. split; [exact HN|]. destruct (ind <? Z.of_N col)%Z.
  - right. destruct (BLOCK_NESTING_MAX <=? N.of_nat (length inds))%N eqn:EL; [discriminate|]. apply N.leb_gt in EL.
    split; [exact EL|]. unfold bind at 1, put at 1 in E. destruct number as [n|].
    + destruct (n <? sc_tokens_parsed s)%N eqn:EP; [discriminate|]. apply N.ltb_ge in EP.
      unfold insert_token in E. vwin E. destruct (insert_at _ _ _) as [l|] eqn:Ei; [|discriminate].
      inversion E. exists l. auto.
    + unfold push_tok, modify in E. inversion E. eexists. split; reflexivity.
  - left. unfold put in E. inversion E. reflexivity.
Qed.

(* a block indent is pushed: the state is one level ahead of the tokens until the start token is queued *)
Lemma J_push_indent pre k e (s : st) c ind inds :
  nb inds = nb (sc_indents s) -> (N.of_nat (length inds) < BLOCK_NESTING_MAX)%N ->
  J pre 0 k e s -> J pre (-1) k e (set_indent c ({| in_indent := ind; in_needs_block_end := true |} :: inds) s).
Proof.
  intros HN EL [J0 HJ]. split; [exact J0|]. vw. eapply JV_state; [exact HJ|..]; try apply HJ.
  - rewrite nb_cons. cbn [in_needs_block_end]. rewrite HN. unfold cur. lia.
  - rewrite nb_cons. cbn [in_needs_block_end]. pose proof (nb_le inds). unfold NB. lia.
Qed.

Lemma kj_roll_indent_none col tk mk : tok_open tk = true -> kj (@roll_indent I col None tk mk) 0 false 0 0 false 0.
Proof.
  intros Ho. apply kj_intro; [apply Keepk_roll_indent|]. intros pre s a s' E (_ & HL & _) HJ.
  destruct (roll_indent_eff _ _ _ _ _ _ _ E) as [->|(_ & ind & inds & HN & [->|(EL & toks & -> & ->)])].
  - exact HJ.
  - eapply J_view; [..|exact HJ]; try reflexivity. exact HN.
  - destruct (J_push_indent pre false 0 s (Z.of_N col) ind inds HN EL HJ) as [J0 HJ1].
    split; [exact J0|]. vwin HJ1. vw. rewrite app_assoc.
    change 0%Z with (-1 + 1)%Z at 1. apply JV_push_open; try assumption; lia.
Qed.

(* the implicit-flow-mapping stack and the flow level *)
Lemma ni_cons x r : ni (x :: r) = (if is_inside x then 1 else 0) + ni r.
Proof. unfold ni. cbn. destruct (is_inside x); reflexivity. Qed.

Lemma kj_end_implicit_mapping mk d k e : (0 <= d)%Z -> kj (@end_implicit_mapping I mk) d k e d k e.
Proof.
  intros Hd. apply kj_intro; [apply Keepk_end_implicit_mapping|]. intros pre s a s' E _ [J0 HJ].
  unfold end_implicit_mapping in E. unfold bind at 1, get at 1 in E.
  destruct (sc_ifms s) as [|[| | |] r] eqn:Ei; try (inversion E; subst; split; [exact J0|rewrite Ei; exact HJ]).
  - unfold bind, put, push_tok, modify in E. inversion E; subst. split; [exact J0|]. vw. rewrite app_assoc.
    apply JV_push_close; [reflexivity|reflexivity| |].
    + pose proof (cur_nonneg (nb (sc_indents s)) (sc_flow_level s) (ImPossible :: r)). lia.
    + eapply JV_state; [exact HJ|..]; try apply HJ.
      unfold cur. rewrite !ni_cons. cbn [is_inside]. lia.
  - unfold put in E. inversion E; subst. split; [exact J0|]. vw.
    eapply JV_state; [exact HJ|..]; try apply HJ.
    unfold cur. rewrite !ni_cons. cbn [is_inside]. lia.
Qed.

Lemma kj_increase : kj (@increase_flow_level I) 0 false 0 (-1) false (-1).
Proof.
  intros pre s a s' [HB [J0 HJ]] E. unfold increase_flow_level, bind, get, put in E.
  destruct (sc_flow_level s =? FLOW_LEVEL_MAX)%N eqn:EM; [discriminate|]. apply N.eqb_neq in EM. inversion E; subst. split.
  - destruct HB as (B1 & B2 & B3). unfold SkB. vw. cbn [length]. repeat split; auto. lia.
  - split; [exact J0|]. vw.
    eapply JV_state; [eapply JV_sks; [..|exact HJ]|..].
    + intros i. cbn [eff]. rewrite phi_cons. unfold kcount. cbn. lia.
    + intros n H. cbn. exact H.
    + unfold cur. lia.
    + apply HJ.
    + destruct HJ as (_ & _ & _ & _ & D2 & _). lia.
    + destruct HJ as (_ & _ & _ & _ & _ & D3). lia.
Qed.

Lemma kj_decrease : kj (@decrease_flow_level I) 0 false 0 1 false 1.
Proof.
  intros pre s a s' [HB [J0 HJ]] E. unfold decrease_flow_level, bind, get, put, ret, panic in E.
  destruct (0 <? sc_flow_level s)%N eqn:EM.
  - apply N.ltb_lt in EM. destruct (sc_sks s) as [|k r] eqn:Es; [discriminate|]. inversion E; subst. split.
    + destruct HB as (B1 & B2 & B3). unfold SkB. vw. rewrite Es in B2. cbn [length] in B2. repeat split; auto. lia.
    + split; [exact J0|]. vw.
      eapply JV_state; [eapply (JV_sks _ _ _ _ (k :: r) r); [..|exact HJ]|..].
      * intros i. cbn [eff]. apply (phi_tl_le (k :: r)).
      * intros n. apply sk_ok_tl.
      * unfold cur. lia.
      * apply HJ.
      * destruct HJ as (_ & _ & _ & _ & D2 & _). lia.
      * destruct HJ as (_ & _ & _ & _ & _ & D3). lia.
  - inversion E; subst. split; [exact HB|]. split; [exact J0|].
    eapply JV_state; [exact HJ|..]; try apply HJ; [lia|]. destruct HJ as (_ & _ & _ & _ & _ & D3). lia.
Qed.

Lemma kj_push_ifms x d k : is_inside x = false -> kj (modify (fun s : st => set_ifms (x :: sc_ifms s) s)) d k (-1) d k 0.
Proof.
  intros Hx pre s a s' [HB [J0 HJ]] E. inversion E; subst. split; [exact HB|]. split; [exact J0|]. vw.
  eapply JV_state; [exact HJ|..]; try apply HJ.
  - unfold cur. rewrite ni_cons, Hx. lia.
  - destruct HJ as (_ & _ & _ & _ & _ & D3). cbn [length]. lia.
Qed.

Definition hd_inside (l : list ims) : bool := match l with ImInside :: _ => true | _ => false end.
Lemma pop_ifms_J pre d k (s : st) :
  hd_inside (sc_ifms s) = false -> JB pre d k 1 s -> JB pre d k 0 (set_ifms (tl (sc_ifms s)) s).
Proof.
  intros Hh [HB [J0 HJ]]. split; [exact HB|]. split; [exact J0|]. vw.
  eapply JV_state; [exact HJ|..]; try apply HJ.
  - unfold cur. destruct (sc_ifms s) as [|x r]; cbn [tl]; [lia|]. rewrite ni_cons. destruct x; try discriminate; cbn [is_inside]; lia.
  - destruct HJ as (_ & _ & _ & _ & _ & D3). destruct (sc_ifms s); cbn [length tl] in *; lia.
Qed.

(* 3. the token-producing scanners return a token that is not a collection start *)
Definition retn (m : M token) : Prop := forall s t s', m s = Ok (t, s') -> tok_open (snd t) = false.
Lemma leaf_not_open t : leaf t -> tok_open (snd t) = false.
Proof. destruct t as [sp []]; intros H; first [reflexivity|discriminate H]. Qed.
Lemma retn_leaf (m : M token) : Res leaf m -> retn m.
Proof. apply Res_impl, leaf_not_open. Qed.

Variable F : nat.

Lemma retn_scan_version_directive_value mk : retn (scan_version_directive_value ops F mk).
Proof. apply retn_leaf, leaf_scan_version_directive_value. Qed.
Lemma retn_scan_tag_directive_value mk : retn (scan_tag_directive_value ops F mk).
Proof. apply retn_leaf, leaf_scan_tag_directive_value. Qed.

Lemma kj_bind_tok (m : M token) (f : token -> M unit) d k e d' k' e' :
  Fr m -> Res leaf m -> (forall t, tok_open (snd t) = false -> kj (f t) d k e d' k' e') -> kj (bind m f) d k e d' k' e'.
Proof.
  intros Hm Hk Hf pre s b s' H E. unfold bind in E. destruct (m s) as [[t s1]| | |] eqn:E1; try discriminate.
  eapply Hf; [eapply retn_leaf; [exact Hk|exact E1]| |exact E]. eapply (kj_Fr m d k e Hm); [exact H|exact E1].
Qed.

(* 4. Model/SFetch.v *)
Create HintDb kj.
Hint Resolve kj_allow kj_disallow kj_save_simple_key kj_remove_simple_key kj_stale_simple_keys kj_roll_one_col_indent
  kj_unroll_indent kj_increase kj_decrease : kj.
Hint Extern 1 (kj (end_implicit_mapping _) _ _ _ _ _ _) => apply kj_end_implicit_mapping; lia : kj.
Hint Extern 1 (kj (roll_indent _ None _ _) _ _ _ _ _ _) => apply kj_roll_indent_none; reflexivity : kj.

Ltac kj1 :=
  lazymatch goal with
  | |- kj (bind _ _) _ _ _ _ _ _ => eapply kj_bind; [kj1|intros ?]
  | |- kj (ret _) _ _ _ _ _ _ => apply kj_Fr, Fr_ret
  | |- kj (fail _ _) _ _ _ _ _ _ => apply kj_fail
  | |- kj (panic _) _ _ _ _ _ _ => apply kj_panic
  | |- kj oof _ _ _ _ _ _ => apply kj_oof
  | |- kj get _ _ _ _ _ _ => apply kj_Fr, Fr_get
  | |- kj (gets _) _ _ _ _ _ _ => apply kj_Fr, Fr_gets
  | |- kj (push_tok _) (-1)%Z _ _ _ _ _ => apply kj_push_open; first [reflexivity | match goal with |- context [if ?b then _ else _] => destruct b; reflexivity end]
  | |- kj (push_tok _) 1%Z _ _ _ _ _ => apply kj_push_close; first [reflexivity | match goal with |- context [if ?b then _ else _] => destruct b; reflexivity end]
  | |- kj (push_tok _) _ _ _ _ _ _ => apply kj_push_nonopen; first [reflexivity | assumption | match goal with |- context [if ?b then _ else _] => destruct b; reflexivity end]
  | |- kj (match ?x with _ => _ end) _ _ _ _ _ _ => destruct x
  | |- kj _ _ _ _ _ _ _ => first [ solve [eauto 2 with kj] | apply kj_Fr; solve [auto with fr] ]
  end.
Ltac kj_go := repeat (lazy zeta; kj1).

Lemma kj_fetch_directive : kj (fetch_directive ops F) 0 false 0 0 false 0.
Proof.
  unfold fetch_directive. do 3 (eapply kj_bind; [solve [eauto 2 with kj]|intros _]).
  apply kj_bind_tok; [apply Fr_scan_directive|apply leaf_scan_directive|]. intros t Ht. kj_go.
Qed.
Lemma kj_fetch_tag : kj (fetch_tag ops F) 0 false 0 0 false 0.
Proof.
  unfold fetch_tag. do 2 (eapply kj_bind; [solve [eauto 2 with kj]|intros _]).
  apply kj_bind_tok; [apply Fr_scan_tag|apply leaf_scan_tag|]. intros t Ht. kj_go.
Qed.
Lemma kj_fetch_anchor alias : kj (fetch_anchor ops F alias) 0 false 0 0 false 0.
Proof.
  unfold fetch_anchor. do 2 (eapply kj_bind; [solve [eauto 2 with kj]|intros _]).
  apply kj_bind_tok; [apply Fr_scan_anchor|apply leaf_scan_anchor|]. intros t Ht. kj_go.
Qed.
Lemma kj_fetch_block_scalar literal : kj (fetch_block_scalar ops F literal) 0 false 0 0 false 0.
Proof.
  unfold fetch_block_scalar. do 2 (eapply kj_bind; [solve [eauto 2 with kj]|intros _]).
  apply kj_bind_tok; [apply Fr_scan_block_scalar|apply leaf_scan_block_scalar|]. intros t Ht. kj_go.
Qed.
Lemma kj_set_adj d k e : kj (modify (fun s : st => set_adj (m_index (sc_mark s)) s)) d k e d k e.
Proof. apply kj_modify_view. intros s. unfold vsame; cbn. auto 10. Qed.
Hint Resolve kj_set_adj : kj.
Lemma kj_fetch_flow_scalar single : kj (fetch_flow_scalar ops F single) 0 false 0 0 false 0.
Proof.
  unfold fetch_flow_scalar. do 2 (eapply kj_bind; [solve [eauto 2 with kj]|intros _]).
  apply kj_bind_tok; [apply Fr_scan_flow_scalar|apply leaf_scan_flow_scalar|]. intros t Ht. kj_go.
Qed.
Lemma kj_fetch_plain_scalar : kj (fetch_plain_scalar ops F) 0 false 0 0 false 0.
Proof.
  unfold fetch_plain_scalar. do 2 (eapply kj_bind; [solve [eauto 2 with kj]|intros _]).
  apply kj_bind_tok; [apply Fr_scan_plain_scalar|apply leaf_scan_plain_scalar|]. intros t Ht. kj_go.
Qed.
Lemma kj_fetch_flow_entry : kj (fetch_flow_entry ops F) 0 false 0 0 false 0.
Proof. unfold fetch_flow_entry. kj_go. Qed.
Lemma kj_fetch_block_entry : kj (fetch_block_entry ops F) 0 false 0 0 false 0.
Proof. unfold fetch_block_entry. kj_go. Qed.
Lemma kj_fetch_document_indicator t : tok_open t = false -> kj (fetch_document_indicator ops t) 0 false 0 0 false 0.
Proof. intros Ht. unfold fetch_document_indicator. kj_go. Qed.

Lemma kj_fetch_stream_end : kj (fetch_stream_end (I:=I)) 0 false 0 0 false 0.
Proof.
  unfold fetch_stream_end.
  eapply kj_bind; [apply kj_modify_view; intros s; destruct (_ =? _)%N; unfold vsame; cbn; auto 10|intros _].
  intros pre s a s' H E. unfold bind at 1, get at 1 in E. destruct (existsb _ _); [discriminate|].
  unfold bind at 1, put at 1 in E.
  match type of E with ?m ?s1 = _ =>
    assert (H1 : JB pre 0 false 0 s1);
    [|assert (HR : kj m 0 false 0 0 false 0) by kj_go; exact (HR pre _ _ _ H1 E)] end.
  destruct H as [HB HJ]. split.
  - destruct HB as (B1 & B2 & B3). unfold SkB. vw. rewrite map_length. auto.
  - apply J_wk; [|exact HJ]. apply wk_map. intros k. apply wk1_kill.
Qed.

Lemma kj_key_ifms d k e :
  kj (modify (fun s : st => match sc_ifms s with
                            | ImPossible :: r => set_ifms (ImInsideExplicitKey :: r) s
                            | _ => s end)) d k e d k e.
Proof.
  apply kj_intro; [apply Keepk_key_ifms|]. intros pre s a s' E _ [J0 HJ]. inversion E; subst.
  destruct (sc_ifms s) as [|[| | |] r] eqn:Ei; try (split; [exact J0|rewrite Ei; exact HJ]).
  split; [exact J0|]. vw. eapply JV_state; [exact HJ|..]; try apply HJ. unfold cur. rewrite !ni_cons. cbn [is_inside]. lia.
Qed.
Hint Resolve kj_key_ifms : kj.
Lemma kj_fetch_key : kj (fetch_key ops F) 0 false 0 0 false 0.
Proof. unfold fetch_key. kj_go. Qed.

Lemma kj_fetch_flow_collection_start seq : kj (fetch_flow_collection_start ops F seq) 0 false 0 0 false 0.
Proof.
  unfold fetch_flow_collection_start.
  do 6 (eapply kj_bind; [kj1|intros ?]).
  eapply kj_bind; [apply kj_push_ifms; destruct seq; reflexivity|intros ?]. kj_go.
Qed.

(* ---- fetch_flow_collection_end: the closer is checked against the level it closes (/repo 88700d3), so the entry that
        is popped from sc_ifms is never ImInside ---- *)
Definition same_ifms {A} (m : M A) : Prop := forall s a s', m s = Ok (a, s') -> sc_ifms s' = sc_ifms s.
Lemma same_ifms_remove : same_ifms (@remove_simple_key I).
Proof.
  intros s a s' E. unfold remove_simple_key, bind, get, put, fail, panic in E.
  destruct (sc_sks s); [discriminate|]. destruct (_ && _); [discriminate|]. inversion E; subst. reflexivity.
Qed.
Lemma same_ifms_decrease : same_ifms (@decrease_flow_level I).
Proof.
  intros s a s' E. unfold decrease_flow_level, bind, get, put, ret, panic in E.
  destruct (0 <? _)%N; [destruct (sc_sks s); [discriminate|]|]; inversion E; subst; reflexivity.
Qed.
Lemma same_ifms_disallow : same_ifms (@disallow_simple_key I).
Proof. intros s a s' E. inversion E; subst. reflexivity. Qed.

Lemma Tr_keep_ifms {A} (m : M A) (P P' : st -> Prop) (Q : list ims -> Prop) :
  Tr P m (fun _ => P') -> same_ifms m ->
  Tr (fun s => P s /\ Q (sc_ifms s)) m (fun _ s => P' s /\ Q (sc_ifms s)).
Proof. intros Hk Hs s a s' [HJ HQ] E. split; [eapply Hk; eauto|]. rewrite (Hs _ _ _ E). exact HQ. Qed.

Lemma Tr_check_flow_closer seq (P : st -> Prop) :
  Tr P (@check_flow_closer I seq) (fun _ s => P s /\ (seq = false -> hd_inside (sc_ifms s) = false)).
Proof.
  intros s a s' HJ E. unfold check_flow_closer, bind, get in E.
  destruct (sc_ifms s) as [|x r] eqn:Ei.
  - inversion E; subst. split; [exact HJ|]. rewrite Ei. reflexivity.
  - cbv zeta in E. destruct (Bool.eqb _ _) eqn:Eb; [|discriminate]. inversion E; subst. split; [exact HJ|].
    intros ->. rewrite Ei. destruct x; cbn in *; try discriminate; reflexivity.
Qed.

Lemma end_implicit_hd mk (s : st) a s' : end_implicit_mapping mk s = Ok (a, s') -> hd_inside (sc_ifms s') = false.
Proof.
  unfold end_implicit_mapping. unfold bind at 1, get at 1.
  destruct (sc_ifms s) as [|[| | |] r] eqn:Ei; unfold bind, put, push_tok, modify, ret; intros H; inversion H; subst; vw;
    try reflexivity; rewrite Ei; reflexivity.
Qed.

Lemma kj_adj_if d k e :
  kj (modify (fun s : st => if (0 <? sc_flow_level s)%N then set_adj (m_index (sc_mark s)) s else s)) d k e d k e.
Proof. apply kj_modify_view. intros s. destruct (_ <? _)%N; unfold vsame; cbn; auto 10. Qed.
Hint Resolve kj_adj_if : kj.

Lemma kj_fetch_flow_collection_end seq : kj (fetch_flow_collection_end ops F seq) 0 false 0 0 false 0.
Proof.
  unfold fetch_flow_collection_end. intros pre.
  set (Q := fun l : list ims => seq = false -> hd_inside l = false).
  eapply Tr_bind; [apply Tr_check_flow_closer|intros ?; cbv beta].
  eapply Tr_bind; [apply (Tr_keep_ifms _ _ _ Q (kj_remove_simple_key 0 0 pre) same_ifms_remove)|intros ?; cbv beta].
  eapply Tr_bind; [apply (Tr_keep_ifms _ _ _ Q (kj_decrease pre) same_ifms_decrease)|intros ?; cbv beta].
  eapply Tr_bind; [apply (Tr_keep_ifms _ _ _ Q (kj_disallow 1 false 1 pre) same_ifms_disallow)|intros ?; cbv beta].
  eapply Tr_bind with (R := fun _ s => JB pre 1 false 1 s /\ hd_inside (sc_ifms s) = false).
  { destruct seq.
    - intros s x s' [HJ _] E. unfold bind at 1, mark, gets in E.
      split; [eapply (kj_end_implicit_mapping (sc_mark s) 1 false 1); [lia|exact HJ|exact E]|eapply end_implicit_hd; exact E].
    - intros s x s' [HJ HQ] E. inversion E; subst. split; [exact HJ|apply HQ; reflexivity]. }
  intros ?; cbv beta.
  eapply Tr_bind with (R := fun _ => JB pre 1 false 0).
  { intros s x s' [HJ Hh] E. inversion E; subst. apply pop_ifms_J; assumption. }
  intros ?; cbv beta.
  match goal with |- Tr _ ?m _ => assert (HR : kj m 1 false 0 0 false 0) by kj_go; apply HR end.
Qed.

(* fetch_value: the only place where a collection start is inserted in the middle of the queue *)
Lemma J_kt_weaken pre d e (s : st) : J pre d false e s -> J pre d true e s.
Proof. intros [J0 HJ]. split; [exact J0|apply JV_kt_weaken; exact HJ]. Qed.

Lemma insert_J_plain pre d e (s : st) sk r t l :
  sc_sks s = sk :: r -> sk_possible sk = true -> (sc_tokens_parsed s <= sk_token_number sk)%N ->
  insert_at (N.to_nat (sk_token_number sk - sc_tokens_parsed s)) t (sc_tokens s) = Some l ->
  tok_open (snd t) = false -> tok_close (snd t) = false ->
  J pre d false e s -> J pre d false e (set_tokens l s).
Proof.
  intros Es Hp Hle Hi Ho Hc [J0 HJ]. destruct (insert_at_split _ _ _ _ Hi) as (a0 & b0 & Et & -> & Hl).
  split; [exact J0|]. vw. rewrite Et in HJ. rewrite app_assoc in HJ |- *.
  assert (EK : kpos sk = length (pre ++ a0)) by (unfold kpos; rewrite app_length; lia).
  apply JV_insert_plain; try assumption.
  intros k Hin Hk. cbn [eff] in Hin. rewrite Es in Hin.
  destruct Hin as [<-|Hin]; [lia|]. rewrite <- EK. destruct HJ as (_ & _ & C & _). rewrite Es in C. eapply sk_ok_below; eauto.
Qed.

Lemma insert_J_open pre d e (s : st) sk r t l :
  sc_sks s = sk :: r -> sk_possible sk = true -> (sc_tokens_parsed s <= sk_token_number sk)%N ->
  insert_at (N.to_nat (sk_token_number sk - sc_tokens_parsed s)) t (sc_tokens s) = Some l ->
  tok_open (snd t) = true ->
  J pre d false e s -> J pre (d + 1) true e (set_tokens l s).
Proof.
  intros Es Hp Hle Hi Ho [J0 HJ]. destruct (insert_at_split _ _ _ _ Hi) as (a0 & b0 & Et & -> & Hl).
  split; [exact J0|]. vw. rewrite Et in HJ. rewrite app_assoc in HJ |- *. rewrite Es in HJ |- *.
  assert (EK : kpos sk = length (pre ++ a0)) by (unfold kpos; rewrite app_length; lia).
  apply JV_insert_open; assumption.
Qed.

Lemma roll_indent_some_J pre (s : st) a s' sk r col mk :
  roll_indent col (Some (sk_token_number sk)) TBlockMappingStart mk s = Ok (a, s') ->
  sc_sks s = sk :: r -> sk_possible sk = true ->
  (J pre 0 false 0 s \/ (J pre 0 true 0 s /\ (0 < sc_flow_level s)%N)) ->
  J pre 0 true 0 s' /\ sc_sks s' = sc_sks s /\ sc_flow_level s' = sc_flow_level s.
Proof.
  intros E Es Hp HJ.
  destruct (roll_indent_eff _ _ _ _ _ _ _ E) as [->|(Hf & ind & inds & HN & HE)].
  - split; [|split; reflexivity]. destruct HJ as [HJ|[HJ _]]; [apply J_kt_weaken; exact HJ|exact HJ].
  - destruct HJ as [HJ|[_ HF]]; [|lia].
    destruct HE as [->|(EL & toks & -> & EP & Ei)]; (split; [|split; reflexivity]).
    + apply J_kt_weaken. eapply J_view; [..|exact HJ]; try reflexivity. exact HN.
    + change 0%Z with (-1 + 1)%Z at 1.
      eapply (insert_J_open pre (-1) 0 _ sk r _ toks); vw; try eassumption; [reflexivity|].
      apply J_push_indent; assumption.
Qed.

Ltac bstep E E1 a s1 :=
  unfold bind at 1 in E;
  match type of E with (match ?m ?s with _ => _ end) = _ => destruct (m s) as [[a s1]| | |] eqn:E1; try discriminate end.

Lemma step_Fr {A} (m : M A) pre d k e (x : st) a y sks fl :
  Fr m -> m x = Ok (a, y) -> JB pre d k e x /\ sc_sks x = sks /\ sc_flow_level x = fl ->
  JB pre d k e y /\ sc_sks y = sks /\ sc_flow_level y = fl.
Proof.
  intros HF E (HJ & H1 & H2). split; [eapply (kj_Fr m d k e HF); eauto|].
  destruct (HF _ _ _ E) as (F1 & F2 & _). rewrite F1, F2. auto.
Qed.

Lemma kj_fetch_value : kj (fetch_value ops F) 0 false 0 0 false 0.
Proof.
  intros pre s a s' [HB HJ] E. unfold fetch_value in E. unfold bind at 1, get at 1 in E.
  destruct (sc_sks s) as [|sk r] eqn:Es; [discriminate|]. unfold bind at 1, ret at 1 in E. cbv zeta in E.
  remember (match sc_ifms s with ImPossible :: _ => true | _ => false end) as bs eqn:Ebs.
  bstep E E1 u1 s1.
  assert (Hfl : bs = true -> (0 < sc_flow_level s)%N).
  { intros ->. destruct HJ as (_ & _ & _ & _ & _ & _ & D3). destruct (sc_ifms s) as [|[| | |] ri]; try discriminate.
    cbn [length] in D3. lia. }
  assert (H1 : JB pre (if bs then -1 else 0) false 0 s1 /\ sc_sks s1 = sk :: r /\ sc_flow_level s1 = sc_flow_level s).
  { destruct bs.
    - inversion E1; subst. split; [|split; [exact Es|reflexivity]]. split; [exact HB|]. destruct HJ as [J0 HJ].
      split; [exact J0|]. vw. destruct (sc_ifms s) as [|[| | |] ri]; try discriminate. cbn [tl].
      eapply JV_state; [exact HJ|..]; try apply HJ. unfold cur. rewrite !ni_cons. cbn [is_inside]. lia.
    - inversion E1; subst. split; [split; assumption|split; [exact Es|reflexivity]]. }
  clear E1 HJ HB.
  bstep E E2 u2 s2. apply (step_Fr _ _ _ _ _ _ _ _ _ _ (Fr_skip_non_blank ops) E2) in H1. clear E2.
  bstep E E3 c s3.
  assert (H3 : Fr (if (sc_flow_level s =? 0)%N then look_ch ops else ret 0%N)) by (destruct (_ =? _)%N; auto with fr).
  apply (step_Fr _ _ _ _ _ _ _ _ _ _ H3 E3) in H1. clear E3 H3.
  bstep E E4 u4 s4.
  match type of E4 with ?m _ = _ => assert (H4 : Fr m) by fr end.
  apply (step_Fr _ _ _ _ _ _ _ _ _ _ H4 E4) in H1. clear E4 H4.
  destruct H1 as ([HB4 HJ4] & Es4 & Ef4).
  destruct (sk_possible sk) eqn:Hp.
  - (* the key is possible: Key (and the collection starts) are inserted at its position *)
    unfold bind at 1, get at 1 in E.
    destruct (sk_token_number sk <? sc_tokens_parsed s4)%N eqn:EP; [discriminate|]. apply N.ltb_ge in EP.
    unfold bind at 1, ret at 1 in E.
    bstep E E5 u5 s5. unfold insert_token in E5.
    destruct (insert_at _ _ (sc_tokens s4)) as [l5|] eqn:Ei5; [|discriminate]. inversion E5; subst u5 s5. clear E5.
    pose proof (insert_J_plain pre _ 0 s4 sk r _ l5 Es4 Hp EP Ei5 eq_refl eq_refl HJ4) as HJ5.
    assert (HB5 : SkB (set_tokens l5 s4)) by exact HB4.
    bstep E E6 u6 s6.
    assert (H6 : SkB s6 /\ sc_sks s6 = sk :: r /\ sc_flow_level s6 = sc_flow_level s
                 /\ (J pre 0 false 0 s6 \/ (J pre 0 true 0 s6 /\ (0 < sc_flow_level s6)%N))).
    { destruct bs.
      - cbn [orb] in E6. destruct (_ || _) in E6; [discriminate|]. unfold insert_token in E6. vwin E6.
        destruct (insert_at _ _ l5) as [l6|] eqn:Ei6; [|discriminate]. inversion E6; subst u6 s6.
        split; [exact HB4|]. split; [exact Es4|]. split; [exact Ef4|]. right. split; [|vw; rewrite Ef4; auto].
        change 0%Z with (-1 + 1)%Z at 1.
        apply (insert_J_open pre (-1) 0 (set_tokens l5 s4) sk r _ l6 Es4 Hp EP Ei6 eq_refl HJ5).
      - assert (s6 = set_tokens l5 s4).
        { cbn [orb] in E6. destruct (match sc_ifms s with ImInside :: _ => true | _ => false end);
            [destruct (_ || _) in E6; [discriminate|]|]; inversion E6; reflexivity. }
        subst s6. split; [exact HB4|]. split; [exact Es4|]. split; [exact Ef4|]. left. exact HJ5. }
    clear E6 HJ5 HB5 HJ4. destruct H6 as (HB6 & Es6 & Ef6 & HJ6).
    bstep E E7 u7 s7.
    destruct (roll_indent_some_J pre s6 u7 s7 sk r _ _ E7 Es6 Hp HJ6) as (HJ7 & Es7 & Ef7).
    pose proof (Keepk_roll_indent _ _ _ _ _ _ _ HB6 E7) as (HB7 & _).
    match type of E with ?m _ = _ => assert (HR : kj m 0 true 0 0 false 0) end.
    { eapply kj_bind; [apply kj_roll_one_col_indent|intros ?]. eapply kj_bind; [apply kj_kill_key|intros ?]. kj_go. }
    exact (HR pre _ _ _ (conj HB7 HJ7) E).
  - (* no candidate: the tokens are pushed at the end of the queue *)
    match type of E with ?m _ = _ => assert (HR : kj m (if bs then -1 else 0) false 0 0 false 0) end.
    { destruct bs; cbv iota; kj_go. }
    exact (HR pre _ _ _ (conj HB4 HJ4) E).
Qed.
Hint Resolve kj_fetch_value : kj.

Lemma kj_fetch_flow_value : kj (fetch_flow_value ops F) 0 false 0 0 false 0.
Proof. unfold fetch_flow_value. kj_go. Qed.

(* 5. fetch_next_token, fetch_more_tokens, next_token, the Scanner iterator *)
Hint Resolve kj_fetch_stream_end kj_fetch_directive : kj.
Hint Extern 1 (kj (fetch_document_indicator _ _) _ _ _ _ _ _) => apply kj_fetch_document_indicator; reflexivity : kj.

(* before StreamStart the skeleton is empty; [Inv] is what holds between two calls of next_token *)
Definition Inv (pre : list token) (s : st) : Prop := SkInv s /\ J pre 0 false 0 s.

Lemma SkInv_SkB (s : st) : SkInv s -> sc_stream_start s = true -> SkB s.
Proof. intros H E. apply (SkInv_split s E) in H. apply H. Qed.

Lemma stream_start_J pre (s : st) a s' :
  fetch_stream_start s = Ok (a, s') -> SkInv s -> sc_stream_start s = false -> J pre 0 false 0 s -> J pre 0 false 0 s'.
Proof.
  intros E (H1 & _ & _) ESS [J0 HJ]. rewrite ESS in H1. destruct H1 as (Hs & Hf & Hi).
  unfold fetch_stream_start, bind, get, put in E. inversion E; subst. split; [exact J0|]. vw. rewrite app_assoc.
  eapply JV_sks; [..|apply JV_push_nonopen; [reflexivity|exact HJ]].
  - intros i. cbn [eff]. rewrite phi_cons. unfold kcount. cbn. lia.
  - intros n H. cbn. exact H.
Qed.

Lemma fetch_next_token_J pre : Tr (Inv pre) (fetch_next_token ops F) (fun _ => J pre 0 false 0).
Proof.
  intros s a s' [HS HJ] E. rewrite DispatchTie.fetch_next_token_shape in E.
  bstep E E1 u1 s1. pose proof (Fr_look ops 1 _ _ _ E1) as HF.
  apply (J_frame _ _ _ _ _ _ HF) in HJ. apply (SkInv_frame _ _ HF) in HS. clear E1 HF.
  unfold bind at 1, get at 1 in E. destruct (sc_stream_start s1) eqn:ESS; cbn [negb] in E.
  - pose proof (SkInv_SkB _ HS ESS) as HB.
    match type of E with ?m _ = _ => assert (HR : kj m 0 false 0 0 false 0) end.
    { kj_go. apply DispatchTie.dispatch_cases. intros [] _; cbn [DispatchTie.run_dact].
      - apply kj_fetch_flow_collection_start.
      - apply kj_fetch_flow_collection_end.
      - apply kj_fetch_flow_entry.
      - apply kj_fetch_block_entry.
      - apply kj_fetch_key.
      - apply kj_fetch_value.
      - apply kj_fetch_flow_value.
      - apply kj_fetch_anchor.
      - apply kj_fetch_tag.
      - apply kj_fetch_block_scalar.
      - apply kj_fetch_flow_scalar.
      - apply kj_fetch_plain_scalar.
      - apply kj_fail. }
    apply (HR pre _ _ _ (conj HB HJ) E).
  - eapply stream_start_J; eauto.
Qed.

(* fetch_more_tokens keeps, beside [SkInv], what stale_simple_keys, fetch_next_token and the token_available flag keep *)
Lemma fetch_more_tokens_keeps (P : st -> Prop) :
  (forall s, P s -> P (set_ta true s)) ->
  (forall s a s', stale_simple_keys s = Ok (a, s') -> P s -> P s') ->
  Tr (fun s => SkInv s /\ P s) (fetch_next_token ops F) (fun _ => P) ->
  forall fuel, Tr (fun s => SkInv s /\ P s) (fetch_more_tokens ops F fuel) (fun _ s => SkInv s /\ P s).
Proof.
  intros Hta Hstale Hnext.
  induction fuel as [|fuel IH]; cbn [fetch_more_tokens]; intros s a s' HI E; [discriminate|].
  unfold bind at 1, get at 1 in E. bstep E E1 need s1.
  assert (H1 : SkInv s1 /\ P s1).
  { destruct (sc_tokens s); [inversion E1; subst; exact HI|].
    unfold bind at 1 in E1. destruct (stale_simple_keys s) as [[u s0]| | |] eqn:E0; try discriminate.
    unfold bind, get, ret in E1. inversion E1; subst. destruct HI as [HS HJ].
    split; [eapply Tr_stale_SkInv; eauto|eapply Hstale; eauto]. }
  clear E1 HI. destruct need.
  - bstep E E2 u2 s2. eapply IH; [|exact E]. split.
    + eapply fetch_next_token_SkInv; [apply H1|exact E2].
    + eapply Hnext; [exact H1|exact E2].
  - inversion E; subst. destruct H1 as [HS HJ]. split.
    + eapply SkInv_vsame; [|exact HS]. unfold vsame; cbn; auto 10.
    + apply Hta. exact HJ.
Qed.

Lemma fetch_more_tokens_Inv fuel pre : Tr (Inv pre) (fetch_more_tokens ops F fuel) (fun _ => Inv pre).
Proof.
  apply fetch_more_tokens_keeps; [|apply stale_J|apply fetch_next_token_J].
  intros s HJ. eapply J_view; [..|exact HJ]; reflexivity.
Qed.

Lemma next_token_Inv pre (s : st) o s' :
  next_token ops F s = Ok (o, s') -> Inv pre s -> match o with Some t => Inv (pre ++ [t]) s' | None => True end.
Proof.
  intros H HI. unfold next_token in H. unfold bind at 1, get at 1 in H.
  destruct (sc_stream_end s); [inversion H; subst; exact Logic.I|].
  bstep H E1 u s1.
  assert (H1 : Inv pre s1).
  { destruct (sc_token_available s); [inversion E1; subst; exact HI|]. eapply fetch_more_tokens_Inv; eauto. }
  clear E1 HI. unfold bind at 1, get at 1 in H.
  destruct (sc_tokens s1) as [|t r] eqn:ET; [discriminate|].
  unfold bind at 1, put at 1 in H. unfold bind at 1 in H.
  assert (H2 : Inv (pre ++ [t]) (set_tp (sc_tokens_parsed s1 + 1) (set_ta false (set_tokens r s1)))).
  { destruct H1 as [HS [J0 HJ]]. split.
    - eapply SkInv_vsame; [|exact HS]. unfold vsame; cbn; auto 10.
    - split; vw; [rewrite app_length, J0; cbn [length]; lia|].
      rewrite <- app_assoc. cbn [app]. rewrite ET in HJ. exact HJ. }
  destruct (snd t); inversion H; subst; exact H2.
Qed.

Lemma Inv_init (i : I) : Inv [] (init_sc i).
Proof.
  split; [apply SkInv_init|]. split; [reflexivity|]. cbn. unfold JV, cur, NB, NF. cbn.
  split; [lia|]. split; [|split; [exact Logic.I|lia]].
  intros A B E. destruct A; [cbn; lia|discriminate].
Qed.

Lemma Inv_max pre (s : st) : Inv pre s -> tok_nest_max pre <= NEST_TOK_MAX.
Proof.
  intros [_ [_ (_ & B & _)]]. unfold tok_nest_max. apply nest_max_le; [lia|].
  intros A' B' E. specialize (B A' (B' ++ sc_tokens s)). rewrite E, <- app_assoc in B. specialize (B eq_refl). lia.
Qed.

Lemma scan_all_Inv fuel : forall (s : st) acc,
  Inv (rev acc) s -> tok_nest_max (fst (scan_all ops F fuel s acc)) <= NEST_TOK_MAX.
Proof.
  induction fuel as [|fuel IH]; intros s acc HI; cbn [scan_all]; [cbn [fst]; eapply Inv_max; exact HI|].
  destruct (next_token ops F s) as [[[t|] s']| | |] eqn:E; cbn [fst]; try (eapply Inv_max; exact HI).
  apply IH. cbn [rev]. exact (next_token_Inv _ _ _ _ E HI).
Qed.

(* THE scanner theorem: whatever the input back-end, the fuel and the way the scan ends, the token stream delivered
   never has more than NEST_TOK_MAX collection starts open at once *)
Theorem scan_nest_bounded fuel (i : I) :
  tok_nest_max (fst (scan_all ops F fuel (init_sc i) [])) <= NEST_TOK_MAX.
Proof. apply scan_all_Inv. apply Inv_init. Qed.

End Scan.

Lemma NEST_TOK_MAX_is_the_bound : NEST_TOK_MAX = NEST_TOK_BOUND.
Proof. reflexivity. Qed.

Theorem scan_token_nesting_bounded {I : Type} (ops : InputOps I) (F fuel : nat) (i : I) :
  tok_nest_max (fst (scan_all ops F fuel (init_sc i) [])) <= NEST_TOK_BOUND.
Proof. rewrite <- NEST_TOK_MAX_is_the_bound. apply scan_nest_bounded. Qed.

Corollary scan_str_nest_bounded text : tok_nest_max (fst (Drivers.scan_str text)) <= NEST_TOK_BOUND.
Proof. unfold Drivers.scan_str. apply scan_token_nesting_bounded. Qed.

(* the block limit is an error VALUE (/repo 99c201b): with BLOCK_NESTING_MAX entries on the indent stack, a block
   collection that would need one more is scan error site 46 ("recursion limit exceeded") at the current mark *)
Lemma roll_indent_at_limit {I : Type} col number tk mk (s : sc I) :
  sc_flow_level s = 0%N -> (sc_indent s < Z.of_N col)%Z ->
  (BLOCK_NESTING_MAX <= N.of_nat (length (sc_indents s)))%N ->
  match sc_indents s with i :: _ => in_needs_block_end i = true | [] => True end ->
  roll_indent col number tk mk s = Err 46 (sc_mark s).
Proof.
  intros Hf Hc Hl Ht. unfold roll_indent, bind, get. rewrite Hf. cbn [N.ltb N.compare].
  replace (sc_indent s <=? Z.of_N col)%Z with true by (symmetry; apply Z.leb_le; lia).
  assert (E : (match sc_indents s with
               | i :: r => if negb (in_needs_block_end i) then (in_indent i, r) else (sc_indent s, sc_indents s)
               | [] => (sc_indent s, sc_indents s)
               end) = (sc_indent s, sc_indents s)).
  { destruct (sc_indents s) as [|i r]; [reflexivity|]. rewrite Ht. reflexivity. }
  rewrite E. replace (sc_indent s <? Z.of_N col)%Z with true by (symmetry; apply Z.ltb_lt; exact Hc).
  replace (BLOCK_NESTING_MAX <=? N.of_nat (length (sc_indents s)))%N with true by (symmetry; apply N.leb_le; exact Hl).
  reflexivity.
Qed.

(* ... and a successful roll_indent leaves at most BLOCK_NESTING_MAX block entries on the indent stack *)
Lemma roll_indent_within_limit {I : Type} col number tk mk (s : sc I) u s' :
  roll_indent col number tk mk s = Ok (u, s') -> nb (sc_indents s) <= N.to_nat BLOCK_NESTING_MAX ->
  nb (sc_indents s') <= N.to_nat BLOCK_NESTING_MAX /\ nb (sc_indents s') <= S (nb (sc_indents s)).
Proof.
  intros E HB.
  destruct (roll_indent_eff _ _ _ _ _ _ _ E) as [->|(_ & ind & inds & HN & [->|(EL & toks & -> & _)])];
    cbn [sc_indents set_tokens set_indent set_struct upd].
  - lia.
  - rewrite HN. lia.
  - rewrite nb_cons. cbn [in_needs_block_end]. pose proof (nb_le inds). lia.
Qed.
