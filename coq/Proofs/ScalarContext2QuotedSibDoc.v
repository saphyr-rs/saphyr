(* C04 in document context, a FOLLOWER behind a QUOTED scalar: the scalar (single- or double-quoted, any allowed presentation)
   is the value of the first pair of a two-pair top-level mapping / the first entry of a two-entry top-level sequence; white
   space (spaces, line feeds) and a line feed separate it from the sibling line at column 0.  An instance of [ctx_scalar_sib]
   (Proofs/ScalarContext2BlockSib.v), on top of [scan_flow_scalar_sib]; fetch_flow_scalar itself skips to the sibling line
   (skip_to_next_token), which allows a simple key there. *)
From Coq Require Import List NArith ZArith Bool Arith Lia.
Import ListNotations.
Require Import Parser SBase SPrim SFetch Pipe Drivers TokenGrammar FlowText ScanBlockProofs ScanFrame FlowFold FlowScalarProofs ScalarContext ScalarContextQuoted ScalarContextFlow ScanPos ScanPosPrim ScanPosFlow ScalarContext2Pos ScalarContext2BlockSib ScalarContext2PlainSibDoc ScalarContext2Quoted.
Open Scope N_scope.
Open Scope mon_scope.

(* spaces and line feeds up to the sibling line *)
Lemma skip_nl_sib x r ws F l mk q adj ska k ind inds tp ta lws : first_ok x ->
  ws_only ws = true -> (S (length ws) < F)%nat ->
  exists l' mk' lws',
    skip_to_next_token str_ops F (mkb (10 :: ws ++ x :: r) l mk q adj ska k ind inds tp ta lws)
    = Ok (tt, mkb (x :: r) l' mk' q adj true k ind inds tp ta lws').
Proof.
  intros Hx Hws HF.
  destruct (skip_ws_b (x :: r) (10 :: ws) F l mk q adj ska k ind inds tp ta lws Hws HF) as (l' & mk' & ska' & lws' & E & Hs).
  cbn [app] in E. rewrite E, (Hs (or_intror (or_introl eq_refl))).
  exists (Nat.max l' 1), mk', lws'. apply skip_none; [cbn [length]; lia|exact Hx].
Qed.

(* the text of a quoted scalar, white space, a line feed, the sibling line *)
Definition qs_text (single : bool) (first : list dq_item) (more : list (brk_layout * list dq_item)) (ws sib : list N) : list N :=
  q_text single first more (ws ++ 10 :: sib).

Lemma quote_nobreak single : is_break (quote_of single) = false.
Proof. destruct single; reflexivity. Qed.

(* fetch_flow_scalar with the position behind the scalar *)
Lemma quoted_fetches_pos F single n first more ws y r :
  q_wf single n first more = true -> ws_only ws = true -> first_ok y -> (y =? 0) = false ->
  (2 * length (qs_text single first more ws (y :: r)) + 10 <= F)%nat ->
  fetches_pos F (qs_text single first more ws (y :: r)) (y :: r) (q_tok single first more) (quoted_side n).
Proof.
  intros Hwf Hws Hy Hy0 HF l [i ln c] q adj ska k ind inds tp lws orig pre0 Hl [Hcol Hn] Hreq Hnn (Eo & Hidx & Hpos).
  cbn [m_col] in Hcol. unfold qs_text, q_text at 1.
  rewrite (rest_quote F single _ l i ln c q adj ska k ind inds tp false lws Hl Hcol).
  fold (q_text single first more (ws ++ 10 :: y :: r)). fold (qs_text single first more ws (y :: r)).
  set (mk := mkm i ln c) in *. apply Z.ltb_ge in Hcol.
  set (S1 := mkb (qs_text single first more ws (y :: r)) l mk q adj false (saved ska k ind inds tp q mk) ind inds tp false lws).
  destruct (scan_flow_scalar_sib F single n first more ws y r S1 Hwf eq_refl Hws (first_ok_sib_head y Hy Hy0) Hn
              ltac:(unfold S1, mk; cbn [sc_indent sc_mark mkb m_col mkm]; lia) HF) as (sp & s' & ws2 & E & Hin & Hws2 & Hl2).
  destruct (frame_b _ _ _ _ _ _ _ _ _ _ _ _ s' (Fr_scan_flow_scalar str_ops F single _ _ s' E))
    as (cs' & l' & mk' & ska' & lws' & ind' & inds' & -> & Hnb & _).
  cbn in Hin. subst cs'.
  assert (HM1 : MarkAt orig pre0 S1) by (repeat split; assumption).
  pose proof (pos_scan_flow_scalar orig Hnn F single S1 (ex_intro _ pre0 HM1)
                ltac:(unfold rnth, rem, S1, qs_text, q_text; cbn [sc_in si_chars mkb nth]; destruct single; reflexivity)) as Hp.
  unfold swp in Hp. rewrite E in Hp. destruct Hp as (HM' & _).
  destruct (skip_nl_sib y r ws2 F l' mk' q adj ska' (saved ska k ind inds tp q mk) ind' inds' tp false lws' Hy Hws2
              ltac:(unfold qs_text, q_text in HF; cbn [length] in HF; rewrite !app_length in HF; cbn [length] in HF; rewrite app_length in HF; lia))
    as (l2 & mk2 & lws2 & E2).
  pose proof (pos_skip_to_next_token orig Hnn F _ HM') as Hp2. unfold swp in Hp2. rewrite E2 in Hp2. destruct Hp2 as (HM3 & _).
  destruct (mark_behind_break orig pre0 S1 _ (pre0 ++ quote_of single :: q_src single first more ++ quote_of single :: ws) 0 (y :: r) HM1 HM3 eq_refl
              ltac:(rewrite Eo; unfold qs_text, q_text; cbn [rem sc_in si_chars mkb app]; rewrite <- !app_assoc; cbn [app]; rewrite <- !app_assoc; reflexivity)
              (proj1 (proj2 (proj2 Hy))) ltac:(rewrite app_length; apply Nat.le_add_r)) as [Hc Hln].
  exists l2, mk2, sp, (m_index mk2), lws2, ind', inds'. split; [|split; [exact Hnb|split; [exact Hc|exact Hln]]].
  etransitivity; [exact (fetch_scan_b _ (fun t => skip_to_next_token str_ops F ;;; modify (fun s => set_adj (m_index (sc_mark s)) s) ;;; push_tok t)
                           false _ _ _ _ _ _ _ _ _ _ _ _ _ Hreq E)|].
  cbn [bind]. rewrite E2. reflexivity.
Qed.

(* the first pair / entry holds the scalar; white space, a line feed, the sibling line *)
Lemma scan_quoted_place_sib p kw2 single n first more ws w tail :
  p <> Top -> place_ok p -> place_ok (sibling p kw2) -> q_wf single n first more = true -> side_at (quoted_side n) p ->
  ws_only ws = true -> sib_wf w = true -> ws_only tail = true ->
  forallb (fun c => negb (c =? 0)) (in_place p (qs_text single first more ws (in_place (sibling p kw2) (w ++ tail)))) = true ->
  exists toks, scan_str (in_place p (qs_text single first more ws (in_place (sibling p kw2) (w ++ tail)))) = (toks, SEnded) /\
               map snd toks = wrap false false (around p (q_tok single first more :: item (sibling p kw2) [TScalar Plain w])).
Proof.
  intros Hp Hok Hok2 Hwf Hside Hws Hw Htail Hnul.
  assert (Hp2 : sibling p kw2 <> Top) by (destruct p; [congruence|discriminate..]).
  destruct (in_place_head (sibling p kw2) (w ++ tail) Hp2 Hok2) as (y & r & Ey & Hy & Hy0).
  pose proof (quoted_fetches_pos (2 * length (in_place p (qs_text single first more ws (y :: r))) + 10) single n first more ws y r Hwf Hws Hy Hy0
                ltac:(destruct p; cbn [in_place]; rewrite ?app_length; cbn [length]; lia)) as Hfe.
  rewrite <- Ey in Hfe.
  apply (ctx_scalar_sib p kw2 (quote_of single) _ (q_tok single first more) (quoted_side n) w tail Hp Hok Hok2 (quote_first single)
           ltac:(discriminate) Hw Htail); [|exact Hfe|exact Hside|exact Hnul].
  exists (quote_of single :: q_src single first more ++ quote_of single :: ws ++ [10]). cbn [app]. rewrite <- !app_assoc. cbn [app].
  rewrite <- !app_assoc. reflexivity.
Qed.

(* T-value with a sibling pair:  kw: <quoted scalar> ws LF kw2: w tail   (continuation lines of the scalar indented by n >= 2) *)
Theorem scan_quoted_value_sib kw single n first more ws kw2 w tail :
  key_ok kw = true -> q_wf single n first more = true -> (2 <= n)%nat -> ws_only ws = true ->
  key_ok kw2 = true -> sib_wf w = true -> ws_only tail = true ->
  forallb (fun c => negb (c =? 0)) (kw ++ 58 :: 32 :: qs_text single first more ws (kw2 ++ 58 :: 32 :: w ++ tail)) = true ->
  exists toks, scan_str (kw ++ 58 :: 32 :: qs_text single first more ws (kw2 ++ 58 :: 32 :: w ++ tail)) = (toks, SEnded) /\
               map snd toks = wrap false false [TBlockMappingStart; TKey; TScalar Plain kw; TValue; q_tok single first more;
                                                TKey; TScalar Plain kw2; TValue; TScalar Plain w; TBlockEnd].
Proof.
  intros Hkw Hwf Hn Hws Hkw2.
  apply (scan_quoted_place_sib (Value kw) kw2 single n first more ws w tail ltac:(discriminate) Hkw Hkw2 Hwf); [|exact Hws].
  intros c Hc. split; [apply Z.ltb_ge|]; lia.
Qed.

(* T-entry with a sibling entry:  - <quoted scalar> ws LF - w tail   (continuation lines indented by n >= 1) *)
Theorem scan_quoted_entry_sib single n first more ws w tail :
  q_wf single n first more = true -> (1 <= n)%nat -> ws_only ws = true -> sib_wf w = true -> ws_only tail = true ->
  forallb (fun c => negb (c =? 0)) (45 :: 32 :: qs_text single first more ws (45 :: 32 :: w ++ tail)) = true ->
  exists toks, scan_str (45 :: 32 :: qs_text single first more ws (45 :: 32 :: w ++ tail)) = (toks, SEnded) /\
               map snd toks = wrap false false [TBlockSequenceStart; TBlockEntry; q_tok single first more; TBlockEntry; TScalar Plain w; TBlockEnd].
Proof.
  intros Hwf Hn.
  apply (scan_quoted_place_sib Entry [] single n first more ws w tail ltac:(discriminate) I I Hwf).
  split; [reflexivity|cbn; lia].
Qed.

(* text -> events *)
Theorem run_quoted_value_sib kw single n first more ws kw2 w tail :
  key_ok kw = true -> q_wf single n first more = true -> (2 <= n)%nat -> ws_only ws = true ->
  key_ok kw2 = true -> sib_wf w = true -> ws_only tail = true ->
  forallb (fun c => negb (c =? 0)) (kw ++ 58 :: 32 :: qs_text single first more ws (kw2 ++ 58 :: 32 :: w ++ tail)) = true ->
  map fst (fst (run_str (kw ++ 58 :: 32 :: qs_text single first more ws (kw2 ++ 58 :: 32 :: w ++ tail))))
  = [EStreamStart; EDocumentStart false; EMappingStart 0 None; EScalar kw Plain 0 None; EScalar (dq_text first more) (style_of single) 0 None;
     EScalar kw2 Plain 0 None; EScalar w Plain 0 None; EMappingEnd; EDocumentEnd; EStreamEnd]
  /\ snd (run_str (kw ++ 58 :: 32 :: qs_text single first more ws (kw2 ++ 58 :: 32 :: w ++ tail))) = PDone.
Proof.
  intros Hkw Hwf Hn Hws Hkw2 Hw Htail Hnul.
  exact (run_of_scan _ (LBMap no_props [(true, lword kw, (true, q_node single first more)); (true, lword kw2, (true, lword w))])
           (scan_quoted_value_sib kw single n first more ws kw2 w tail Hkw Hwf Hn Hws Hkw2 Hw Htail Hnul) eq_refl eq_refl ltac:(cbn; lia)).
Qed.

Theorem run_quoted_entry_sib single n first more ws w tail :
  q_wf single n first more = true -> (1 <= n)%nat -> ws_only ws = true -> sib_wf w = true -> ws_only tail = true ->
  forallb (fun c => negb (c =? 0)) (45 :: 32 :: qs_text single first more ws (45 :: 32 :: w ++ tail)) = true ->
  map fst (fst (run_str (45 :: 32 :: qs_text single first more ws (45 :: 32 :: w ++ tail))))
  = [EStreamStart; EDocumentStart false; ESequenceStart 0 None; EScalar (dq_text first more) (style_of single) 0 None; EScalar w Plain 0 None;
     ESequenceEnd; EDocumentEnd; EStreamEnd]
  /\ snd (run_str (45 :: 32 :: qs_text single first more ws (45 :: 32 :: w ++ tail))) = PDone.
Proof.
  intros Hwf Hn Hws Hw Htail Hnul.
  exact (run_of_scan _ (LBSeq no_props [q_node single first more; lword w])
           (scan_quoted_entry_sib single n first more ws w tail Hwf Hn Hws Hw Htail Hnul) eq_refl eq_refl ltac:(cbn; lia)).
Qed.
