(* C10 — the byte-level StrInput (Model/StrBytes.v) refines the character-level instance [str_ops] and the generic
   (provided-method) definitions of Model/SPrim.v.

   RB s b : the byte state b holds exactly the UTF-8 encoding of the characters of s (all Unicode scalar values), and
   the lookahead counters agree up to the one difference that the overrides really have: the four consuming overrides
   (skip_ws_to_eol, skip_while_non_breakz, skip_while_blank, fetch_while_is_alpha) never call `lookahead`, whereas the
   provided methods call `look_ch` (= lookahead(1)) in their loops; so after one of them the generic counter is
   max(l, 1) and the byte-level counter is still l.  [look_rel] is the invariant: equal, or (0 at byte level, 1 at
   character level); every later lookahead(n) with n >= 1 makes them equal again. *)
From Coq Require Import List NArith ZArith Bool Lia Arith.
Import ListNotations.
Require Import Parser SBase SPrim TagSpec TagUtf8 StrBytes.
Open Scope N_scope.
Arguments N.add : simpl never.
Arguments N.sub : simpl never.
Arguments N.eqb : simpl never.
Arguments N.ltb : simpl never.
Arguments N.leb : simpl never.
Arguments N.div : simpl never.
Arguments N.modulo : simpl never.
Arguments N.mul : simpl never.

Definition scalars (cs : list chr) : Prop := Forall (fun c => is_scalar_value c = true) cs.
Definition look_rel (lc lb : nat) : Prop := lc = lb \/ (lb = 0%nat /\ lc = 1%nat).
Definition RB (s : strin) (b : bstr) : Prop :=
  sb_bytes b = bytes_of (si_chars s) /\ scalars (si_chars s) /\ look_rel (si_look s) (sb_look b).

(* 1. The encoding seen from the front *)
Lemma bytes_of_cons c cs : bytes_of (c :: cs) = utf8_encode c ++ bytes_of cs.
Proof. reflexivity. Qed.
Lemma bytes_of_app a b : bytes_of (a ++ b) = bytes_of a ++ bytes_of b.
Proof. unfold bytes_of. apply flat_map_app. Qed.
Lemma bytes_of_nil : bytes_of [] = [].
Proof. reflexivity. Qed.

Lemma scalars_cons c cs : scalars (c :: cs) -> is_scalar_value c = true /\ scalars cs.
Proof. intros H. inversion H; subst. split; assumption. Qed.
Lemma scalars_tl cs : scalars cs -> scalars (tl cs).
Proof. destruct cs; [trivial|]. intros H. apply scalars_cons in H. apply H. Qed.

(* decoding one character from the front of an encoding gives the character and the encoding of the rest *)
Lemma next_char_enc c rest : is_scalar_value c = true -> next_char (utf8_encode c ++ rest) = Ok (Some (c, rest)).
Proof.
  intros H. pose proof (utf8_round_trip c H) as RT.
  destruct (utf8_encode c) as [|h t] eqn:E. { cbn in RT. discriminate. }
  pose proof (utf8_decode_length _ _ _ RT) as SL.
  change ((h :: t) ++ rest) with (h :: (t ++ rest)). unfold next_char. rewrite SL.
  cbn [firstn skipn]. rewrite firstn_app_exact, RT, skipn_app_exact. reflexivity.
Qed.
Lemma next_char_cons c cs : scalars (c :: cs) -> next_char (bytes_of (c :: cs)) = Ok (Some (c, bytes_of cs)).
Proof. intros H. apply scalars_cons in H. rewrite bytes_of_cons. apply next_char_enc. apply H. Qed.
Lemma next_char_nil : next_char (bytes_of []) = Ok None.
Proof. reflexivity. Qed.

(* the view of the first bytes: an ASCII byte IS the first character; a byte >= 0x80 is a leading byte >= 0xC0 of a
   first character >= U+0080, followed by at least one continuation byte *)
Inductive front_view : list chr -> list byte -> Prop :=
| FV_nil : front_view [] []
| FV_ascii c cs : c < 128 -> front_view (c :: cs) (c :: bytes_of cs)
| FV_multi c cs h h2 t : 128 <= c -> 192 <= h -> 128 <= h2 -> h2 < 192 -> utf8_encode c = h :: h2 :: t ->
    front_view (c :: cs) (h :: h2 :: t ++ bytes_of cs).

Ltac Zify.zify_post_hook ::= Z.to_euclidean_division_equations.
Lemma front cs : scalars cs -> front_view cs (bytes_of cs).
Proof.
  destruct cs as [|c cs]; intros _; [constructor|].
  rewrite bytes_of_cons. pose proof (utf8_encode_cases c) as U.
  remember (utf8_encode c) as bs eqn:E. destruct U as [H1|H1|H1|H1].
  - apply FV_ascii. exact H1.
  - apply (FV_multi c cs _ _ []); [lia..|symmetry; exact E].
  - apply (FV_multi c cs _ _ [_]); [lia..|symmetry; exact E].
  - apply (FV_multi c cs _ _ [_; _]); [lia..|symmetry; exact E].
Qed.

Lemma front_cons c r : scalars (c :: r) ->
  (c < 128 /\ bytes_of (c :: r) = c :: bytes_of r)
  \/ (128 <= c /\ exists h h2 t, 192 <= h /\ bytes_of (c :: r) = h :: h2 :: t ++ bytes_of r).
Proof.
  intros _. rewrite bytes_of_cons.
  destruct (utf8_encode_cases c) as [H|H|H|H]; [left; split; [exact H|reflexivity]|right; split; [lia|]..].
  - eexists _, _, []. split; [|reflexivity]. lia.
  - eexists _, _, [_]. split; [|reflexivity]. lia.
  - eexists _, _, [_; _]. split; [|reflexivity]. lia.
Qed.

Ltac Zify.zify_post_hook ::= idtac.

(* a predicate that only ASCII characters satisfy *)
Definition ascii_only (p : N -> bool) : Prop := forall x, 128 <= x -> p x = false.
Ltac ascii_tac :=
  intros x Hx;
  unfold is_blank_or_breakz, is_breakz, is_blank, is_break, is_z, is_flow, is_digit, is_alpha;
  repeat match goal with
         | |- context [?a =? ?b] => destruct (N.eqb_spec a b); [lia|]
         | |- context [?a <=? ?b] => destruct (N.leb_spec a b); try lia
         end; reflexivity.
Lemma ao_blank : ascii_only is_blank. Proof. ascii_tac. Qed.
Lemma ao_break : ascii_only is_break. Proof. ascii_tac. Qed.
Lemma ao_breakz : ascii_only is_breakz. Proof. ascii_tac. Qed.
Lemma ao_z : ascii_only is_z. Proof. ascii_tac. Qed.
Lemma ao_flow : ascii_only is_flow. Proof. ascii_tac. Qed.
Lemma ao_digit : ascii_only is_digit. Proof. ascii_tac. Qed.
Lemma ao_alpha : ascii_only is_alpha. Proof. ascii_tac. Qed.
Lemma ao_blank_or_breakz : ascii_only is_blank_or_breakz. Proof. ascii_tac. Qed.
Lemma ao_or p q : ascii_only p -> ascii_only q -> ascii_only (fun x => p x || q x).
Proof. intros Hp Hq x Hx. rewrite Hp, Hq by exact Hx. reflexivity. Qed.
Lemma ao_eq k : k < 128 -> ascii_only (fun x => x =? k).
Proof. intros Hk x Hx. apply N.eqb_neq. lia. Qed.

(* 2. The required methods (the primitives of [InputOps]) *)
Lemma chars_peek_spec cs : scalars cs -> chars_peek (bytes_of cs) = Ok (nth 0 cs 0).
Proof.
  intros H. unfold chars_peek. destruct cs as [|c cs]; [reflexivity|].
  rewrite (next_char_cons _ _ H). reflexivity.
Qed.
Lemma chars_peek_nth_spec n : forall cs, scalars cs -> chars_peek_nth n (bytes_of cs) = Ok (nth n cs 0).
Proof.
  induction n as [|n IH]; intros cs H; [apply chars_peek_spec; exact H|].
  cbn [chars_peek_nth]. destruct cs as [|c cs]; [reflexivity|].
  rewrite (next_char_cons _ _ H). cbn [bindo nth]. apply IH. apply scalars_cons in H. apply H.
Qed.
Lemma chars_advance_spec n : forall cs, scalars cs -> chars_advance n (bytes_of cs) = Ok (bytes_of (skipn n cs)).
Proof.
  induction n as [|n IH]; intros cs H; [reflexivity|].
  cbn [chars_advance]. destruct cs as [|c cs]; [reflexivity|].
  rewrite (next_char_cons _ _ H). cbn [bindo skipn]. apply IH. apply scalars_cons in H. apply H.
Qed.

Lemma look_rel_refl l : look_rel l l. Proof. left. reflexivity. Qed.
Lemma look_rel_max lc lb n : look_rel lc lb -> look_rel (Nat.max lc n) (Nat.max lb n).
Proof. unfold look_rel. intros [->|[-> ->]]; [left; reflexivity|]. destruct n as [|n]; [right; split; reflexivity|left]. cbn [Nat.max]. destruct n; reflexivity. Qed.
Lemma look_rel_max1 lc lb : look_rel lc lb -> look_rel (Nat.max lc 1) lb.
Proof. unfold look_rel. intros [->|[-> ->]]; [|right; split; reflexivity]. destruct lb as [|lb]; [right; split; reflexivity|left]. cbn [Nat.max]. destruct lb; reflexivity. Qed.

Lemma RB_bstr_of s : scalars (si_chars s) -> RB s (bstr_of s).
Proof. intros H. split; [reflexivity|]. split; [exact H|apply look_rel_refl]. Qed.

Lemma rb_lookahead s b n : RB s b ->
  exists s' b', lookahead str_ops n s = Ok s' /\ lookahead bytes_ops n b = Ok b' /\ RB s' b'.
Proof.
  intros (Hb & Hs & Hl). eexists; eexists. split; [reflexivity|]. split; [reflexivity|].
  split; [exact Hb|]. split; [exact Hs|]. apply look_rel_max. exact Hl.
Qed.
Lemma rb_buflen s b : RB s b -> look_rel (buflen str_ops s) (buflen bytes_ops b).
Proof. intros (_ & _ & Hl). exact Hl. Qed.
Lemma rb_buflen_eq s b : RB s b -> (1 <= buflen bytes_ops b)%nat -> buflen bytes_ops b = buflen str_ops s.
Proof. intros (_ & _ & Hl) H1. cbv [buflen bytes_ops str_ops sb_buflen] in *. destruct Hl as [Hl|[Hl _]]; lia. Qed.
Lemma rb_bufmaxlen : bufmaxlen bytes_ops = bufmaxlen str_ops.
Proof. reflexivity. Qed.
Lemma rb_peek_nth s b n : RB s b -> peek_nth bytes_ops n b = peek_nth str_ops n s.
Proof. intros (Hb & Hs & _). cbn [peek_nth bytes_ops str_ops]. unfold sb_peek_nth. rewrite Hb. apply chars_peek_nth_spec. exact Hs. Qed.
Lemma sb_skip_spec s b : RB s b -> exists b', sb_skip b = Ok b' /\ RB (skip1 str_ops s) b'.
Proof.
  intros (Hb & Hs & Hl). unfold sb_skip. rewrite Hb. destruct (si_chars s) as [|c cs] eqn:E.
  - exists b. split; [reflexivity|]. cbn [skip1 str_ops]. rewrite E. split; [exact Hb|]. split; [constructor|exact Hl].
  - rewrite (next_char_cons _ _ Hs). eexists. split; [reflexivity|]. cbn [skip1 str_ops]. rewrite E.
    split; [reflexivity|]. split; [apply scalars_cons in Hs; apply Hs|exact Hl].
Qed.
Lemma rb_skip1 s b : RB s b -> RB (skip1 str_ops s) (skip1 bytes_ops b).
Proof. intros H. destruct (sb_skip_spec _ _ H) as (b' & E & R). cbn [skip1 bytes_ops]. rewrite E. exact R. Qed.
Lemma rb_skip_n s b n : RB s b ->
  exists s' b', skip_n str_ops n s = Ok s' /\ skip_n bytes_ops n b = Ok b' /\ RB s' b'.
Proof.
  intros (Hb & Hs & Hl). eexists; eexists. split; [reflexivity|]. cbn [skip_n bytes_ops]. unfold sb_skip_n.
  rewrite Hb, (chars_advance_spec _ _ Hs). split; [reflexivity|].
  split; [reflexivity|]. split; [apply Forall_skipn; exact Hs|exact Hl].
Qed.
Lemma rb_raw_read_non_breakz s b : RB s b ->
  exists o s' b', raw_read_non_breakz str_ops s = Ok (o, s') /\ raw_read_non_breakz bytes_ops b = Ok (o, b') /\ RB s' b'.
Proof.
  intros (Hb & Hs & Hl). cbn [raw_read_non_breakz bytes_ops str_ops]. unfold sb_raw_read_non_breakz_ch. rewrite Hb.
  destruct (si_chars s) as [|c cs] eqn:E.
  - exists None, s, b. split; [reflexivity|]. split; [reflexivity|]. split; [rewrite E; exact Hb|]. split; [rewrite E; constructor|exact Hl].
  - rewrite (next_char_cons _ _ Hs). cbn [bindo]. destruct (is_breakz c).
    + exists None, s, b. split; [reflexivity|]. split; [reflexivity|]. split; [rewrite E; exact Hb|]. split; [rewrite E; exact Hs|exact Hl].
    + eexists; eexists; eexists. split; [reflexivity|]. split; [reflexivity|]. split; [reflexivity|].
      split; [apply scalars_cons in Hs; apply Hs|exact Hl].
Qed.
(* raw_read_ch is not a primitive of the scanner model (the scanner never calls it on a StrInput); its contract *)
Lemma sb_raw_read_ch_spec s b : RB s b ->
  exists b', sb_raw_read_ch b = Ok (nth 0 (si_chars s) 0, b') /\ RB (skip1 str_ops s) b'.
Proof.
  intros (Hb & Hs & Hl). unfold sb_raw_read_ch. rewrite Hb. destruct (si_chars s) as [|c cs] eqn:E.
  - exists b. split; [reflexivity|]. cbn [skip1 str_ops]. rewrite E. split; [exact Hb|]. split; [constructor|exact Hl].
  - rewrite (next_char_cons _ _ Hs). eexists. split; [reflexivity|]. cbn [skip1 str_ops]. rewrite E.
    split; [reflexivity|]. split; [apply scalars_cons in Hs; apply Hs|exact Hl].
Qed.

Theorem bytes_ops_refines_str_ops : forall s b, RB s b ->
  (forall n, exists s' b', lookahead str_ops n s = Ok s' /\ lookahead bytes_ops n b = Ok b' /\ RB s' b')
  /\ look_rel (buflen str_ops s) (buflen bytes_ops b)
  /\ ((1 <= buflen bytes_ops b)%nat -> buflen bytes_ops b = buflen str_ops s)
  /\ bufmaxlen bytes_ops = bufmaxlen str_ops
  /\ (forall n, peek_nth bytes_ops n b = peek_nth str_ops n s)
  /\ RB (skip1 str_ops s) (skip1 bytes_ops b)
  /\ (forall n, exists s' b', skip_n str_ops n s = Ok s' /\ skip_n bytes_ops n b = Ok b' /\ RB s' b')
  /\ (exists o s' b', raw_read_non_breakz str_ops s = Ok (o, s') /\ raw_read_non_breakz bytes_ops b = Ok (o, b') /\ RB s' b').
Proof.
  intros s b H. split; [intros n; apply rb_lookahead; exact H|]. split; [apply rb_buflen; exact H|].
  split; [apply rb_buflen_eq; exact H|]. split; [apply rb_bufmaxlen|]. split; [intros n; apply rb_peek_nth; exact H|].
  split; [apply rb_skip1; exact H|]. split; [intros n; apply rb_skip_n; exact H|]. apply rb_raw_read_non_breakz; exact H.
Qed.

(* 3. The overridden provided methods: queries *)
(* [g] is the generic definition of Model/SPrim.v run on [str_ops] (a computation of the scanner monad that touches
   the input only), [f] the byte-level override.  q_refines: a query — same answer, no state change, no panic. *)
Definition q_refines {A} (pre : sc strin -> Prop) (g : @M strin A) (f : bstr -> outcome A) : Prop :=
  forall s b, RB (sc_in s) b -> pre s -> exists a, g s = Ok (a, s) /\ f b = Ok a.
(* m_refines: a consuming method — same answer, and the new inputs are related again *)
Definition m_refines {A} (pre : sc strin -> Prop) (g : @M strin A) (f : bstr -> outcome (A * bstr)) : Prop :=
  forall s b, RB (sc_in s) b -> pre s ->
  exists a i' b', g s = Ok (a, set_in i' s) /\ f b = Ok (a, b') /\ RB i' b'.
Definition any (s : sc strin) : Prop := True.
(* the generic next_2_are / next_3_are / next_is_document_* assert buflen() >= n (the overrides do not) *)
Definition looked (n : nat) (s : sc strin) : Prop := (n <= si_look (sc_in s))%nat.
Definition nonempty_in (s : sc strin) : Prop := si_chars (sc_in s) <> [].

Lemma set_in_same (s : sc strin) : set_in (sc_in s) s = s.
Proof. destruct s. reflexivity. Qed.

Lemma assert_buflen_ok n site (s : sc strin) : looked n s -> assert_buflen str_ops n site s = Ok (tt, s).
Proof.
  unfold looked, assert_buflen. intros H. cbn [buflen str_ops].
  destruct (Nat.ltb_spec (si_look (sc_in s)) n); [lia|reflexivity].
Qed.

(* peek / peek_nth / look_ch / next_char_is / nth_char_is *)
Lemma sb_peek_refines : q_refines any (peek str_ops) sb_peek.
Proof.
  intros s b (Hb & Hs & _) _. exists (nth 0 (si_chars (sc_in s)) 0). split; [reflexivity|].
  unfold sb_peek. rewrite Hb. apply chars_peek_spec. exact Hs.
Qed.
Lemma sb_peek_nth_refines n : q_refines any (peekn str_ops n) (sb_peek_nth n).
Proof.
  intros s b (Hb & Hs & _) _. exists (nth n (si_chars (sc_in s)) 0). split; [reflexivity|].
  unfold sb_peek_nth. rewrite Hb. apply chars_peek_nth_spec. exact Hs.
Qed.
Lemma sb_look_ch_refines : m_refines any (look_ch str_ops) sb_look_ch.
Proof.
  intros s b (Hb & Hs & Hl) _.
  exists (nth 0 (si_chars (sc_in s)) 0), {| si_chars := si_chars (sc_in s); si_look := Nat.max (si_look (sc_in s)) 1 |},
         (sb_lookahead 1 b).
  split; [reflexivity|]. split.
  - unfold sb_look_ch, sb_peek. cbn [sb_bytes sb_lookahead]. rewrite Hb, (chars_peek_spec _ Hs). reflexivity.
  - split; [exact Hb|]. split; [exact Hs|]. apply look_rel_max. exact Hl.
Qed.
Lemma sb_next_char_is_refines c : q_refines any (next_char_is str_ops c) (sb_next_char_is c).
Proof.
  intros s b (Hb & Hs & _) _. exists (nth 0 (si_chars (sc_in s)) 0 =? c). split; [reflexivity|].
  unfold sb_next_char_is, sb_peek. rewrite Hb, (chars_peek_spec _ Hs). reflexivity.
Qed.
Lemma sb_nth_char_is_refines n c : q_refines any (nth_char_is str_ops n c) (sb_nth_char_is n c).
Proof.
  intros s b (Hb & Hs & _) _. exists (nth n (si_chars (sc_in s)) 0 =? c). split; [reflexivity|].
  unfold sb_nth_char_is, sb_peek_nth. rewrite Hb, (chars_peek_nth_spec _ _ Hs). reflexivity.
Qed.

(* next_2_are / next_3_are: `chars.next().is_some_and(..)` is false at the end of the buffer, whereas the provided
   method compares the '\0' that peek returns there: the two differ exactly when a NUL is asked for at or after the
   end (next_2_are(x, '\0') on the last character x).  The scanner only asks for non-NUL characters. *)
Lemma next_2_are_str a c (s : sc strin) : looked 2 s ->
  next_2_are str_ops a c s = Ok ((nth 0 (si_chars (sc_in s)) 0 =? a) && (nth 1 (si_chars (sc_in s)) 0 =? c), s).
Proof. intros H. unfold next_2_are, bind. rewrite (assert_buflen_ok _ _ _ H). reflexivity. Qed.
Lemma next_3_are_str a c d (s : sc strin) : looked 3 s ->
  next_3_are str_ops a c d s = Ok ((nth 0 (si_chars (sc_in s)) 0 =? a) && (nth 1 (si_chars (sc_in s)) 0 =? c)
                                    && (nth 2 (si_chars (sc_in s)) 0 =? d), s).
Proof. intros H. unfold next_3_are, bind. rewrite (assert_buflen_ok _ _ _ H). reflexivity. Qed.

(* one step of the two overrides: the next character is compared with [c]; at the end of the buffer the answer is
   false, which is what the comparison of the provided method's '\0' with a character other than NUL gives *)
Lemma next_char_is_then c (K : list byte -> outcome bool) cs : c <> 0 -> scalars cs ->
  bindo (next_char (bytes_of cs))
        (fun o => match o with Some (x, r) => if x =? c then K r else Ok false | None => Ok false end)
  = if nth 0 cs 0 =? c then K (bytes_of (tl cs)) else Ok false.
Proof.
  intros Hc Hs. destruct cs as [|x r]; [|rewrite (next_char_cons _ _ Hs); reflexivity].
  cbn [next_char bytes_of flat_map bindo nth]. rewrite (proj2 (N.eqb_neq 0 c)) by lia. reflexivity.
Qed.
Lemma next_char_is_last c cs : c <> 0 -> scalars cs ->
  bindo (next_char (bytes_of cs)) (fun o => match o with Some (x, _) => Ok (x =? c) | None => Ok false end)
  = Ok (nth 0 cs 0 =? c).
Proof.
  intros Hc Hs. destruct cs as [|x r]; [|rewrite (next_char_cons _ _ Hs); reflexivity].
  cbn [next_char bytes_of flat_map bindo nth]. rewrite (proj2 (N.eqb_neq 0 c)) by lia. reflexivity.
Qed.
Lemma nth_tl n (cs : list chr) : nth n (tl cs) 0 = nth (S n) cs 0.
Proof. destruct cs; [destruct n|]; reflexivity. Qed.

Lemma sb_next_2_are_refines a c : a <> 0 -> c <> 0 -> q_refines (looked 2) (next_2_are str_ops a c) (sb_next_2_are a c).
Proof.
  intros Ha Hc s b (Hb & Hs & _) Hl. eexists. split; [apply next_2_are_str; exact Hl|].
  unfold sb_next_2_are. rewrite Hb, (next_char_is_then a _ _ Ha Hs). destruct (_ =? a); [|reflexivity].
  rewrite (next_char_is_last c _ Hc (scalars_tl _ Hs)), nth_tl. reflexivity.
Qed.
Lemma sb_next_3_are_refines a c d : a <> 0 -> c <> 0 -> d <> 0 ->
  q_refines (looked 3) (next_3_are str_ops a c d) (sb_next_3_are a c d).
Proof.
  intros Ha Hc Hd s b (Hb & Hs & _) Hl. eexists. split; [apply next_3_are_str; exact Hl|].
  pose proof (scalars_tl _ Hs) as Hs1. pose proof (scalars_tl _ Hs1) as Hs2.
  unfold sb_next_3_are. rewrite Hb, (next_char_is_then a _ _ Ha Hs). destruct (_ =? a); [|reflexivity].
  rewrite (next_char_is_then c _ _ Hc Hs1), nth_tl. destruct (_ =? c); [|reflexivity].
  rewrite (next_char_is_last d _ Hd Hs2), !nth_tl. reflexivity.
Qed.
(* the difference, as a theorem about the two definitions: on the one-character text "x" with two characters looked
   ahead, next_2_are('x', '\0') is true for the provided method and false for the override *)
Lemma next_2_are_nul_differs :
  exists s b, RB (sc_in s) b /\ looked 2 s /\ next_2_are str_ops 120 0 s = Ok (true, s) /\ sb_next_2_are 120 0 b = Ok false.
Proof.
  exists (init_sc {| si_chars := [120]; si_look := 2 |}), {| sb_bytes := [120]; sb_look := 2 |}.
  split; [split; [reflexivity|split; [repeat constructor|left; reflexivity]]|].
  split; [unfold looked; cbn; lia|]. split; reflexivity.
Qed.

(* the single-character class tests: the first BYTE is tested *)
Lemma first_byte_refines on_empty p : ascii_only p -> p 0 = on_empty ->
  q_refines any (next_is str_ops p) (first_byte_is on_empty p).
Proof.
  intros Hp H0 s b (Hb & Hs & _) _. exists (p (nth 0 (si_chars (sc_in s)) 0)). split; [reflexivity|].
  unfold first_byte_is. rewrite Hb. destruct (front _ Hs) as [|c cs Hc|c cs h h2 t Hc Hh H2 H2' E].
  - cbn [is_empty nth]. rewrite H0. reflexivity.
  - reflexivity.
  - cbn [is_empty byte_at nth_error bindo nth]. rewrite (Hp h), (Hp c) by lia. reflexivity.
Qed.
(* next_can_be_plain_scalar: bytes 0 and 1 are tested *)
Definition plain_test (fl : bool) (c nc : N) : bool :=
  if (c =? 58) && (is_blank_or_breakz nc || (fl && is_flow nc)) then false
  else if fl && is_flow c then false else true.
Lemma next_can_be_plain_scalar_str fl (s : sc strin) :
  next_can_be_plain_scalar str_ops fl s
  = Ok (plain_test fl (nth 0 (si_chars (sc_in s)) 0) (nth 1 (si_chars (sc_in s)) 0), s).
Proof.
  unfold next_can_be_plain_scalar, plain_test, bind, peek, peekn, ret. cbn [peek_nth str_ops].
  destruct ((nth 0 (si_chars (sc_in s)) 0 =? 58) && _); [reflexivity|].
  destruct (fl && _); reflexivity.
Qed.
Lemma plain_test_multi fl c nc : 128 <= c -> plain_test fl c nc = true.
Proof.
  intros H. unfold plain_test. rewrite (proj2 (N.eqb_neq c 58)) by lia. cbn [andb].
  rewrite (ao_flow c H). rewrite andb_false_r. reflexivity.
Qed.
Lemma plain_test_nc fl c nc nc' : 128 <= nc -> 128 <= nc' -> plain_test fl c nc = plain_test fl c nc'.
Proof.
  intros H H'. unfold plain_test. rewrite (ao_blank_or_breakz nc H), (ao_blank_or_breakz nc' H'), (ao_flow nc H), (ao_flow nc' H').
  reflexivity.
Qed.
(* on the empty buffer the override panics (`self.buffer.as_bytes()[0]`) where the provided method answers true; the
   scanner guards every call by `!next_is_blank_or_breakz()`, which is true on the empty buffer *)
Lemma sb_next_can_be_plain_scalar_refines fl :
  q_refines nonempty_in (next_can_be_plain_scalar str_ops fl) (sb_next_can_be_plain_scalar fl).
Proof.
  intros s b (Hb & Hs & _) Hne. eexists. split; [apply next_can_be_plain_scalar_str|].
  unfold nonempty_in in Hne. unfold sb_next_can_be_plain_scalar. rewrite Hb.
  destruct (front _ Hs) as [|c cs Hc|c cs h h2 t Hc Hh H2 H2' E]; [congruence| |].
  - apply scalars_cons in Hs. destruct Hs as [_ Hs].
    destruct (front _ Hs) as [|c1 cs1 Hc1|c1 cs1 h1 h12 t1 Hc1 Hh1 H12 H12' E1].
    + cbn [byte_at nth_error bindo length Nat.ltb Nat.leb nth]. unfold plain_test.
      change (is_blank_or_breakz 0) with true. cbn [orb]. rewrite andb_true_r. destruct (c =? 58); [reflexivity|]. destruct (fl && _); reflexivity.
    + cbn [byte_at nth_error bindo length Nat.ltb Nat.leb nth]. unfold plain_test.
      destruct ((c =? 58) && _); [reflexivity|]. destruct (fl && _); reflexivity.
    + cbn [byte_at nth_error bindo length Nat.ltb Nat.leb nth].
      rewrite (plain_test_nc fl c c1 h1) by lia. unfold plain_test.
      destruct ((c =? 58) && _); [reflexivity|]. destruct (fl && _); reflexivity.
  - cbn [byte_at nth_error bindo length Nat.ltb Nat.leb nth]. rewrite (plain_test_multi fl c) by exact Hc.
    rewrite (proj2 (N.eqb_neq h 58)) by lia. cbn [andb]. rewrite (ao_flow h) by lia. rewrite andb_false_r. reflexivity.
Qed.
Lemma sb_next_can_be_plain_scalar_empty fl l : sb_next_can_be_plain_scalar fl {| sb_bytes := []; sb_look := l |} = Panic 300.
Proof. reflexivity. Qed.

(* next_is_document_indicator / start / end: bytes 0..3 and the byte length *)
Definition n3 (cs : list chr) (x : N) : bool := (nth 0 cs 0 =? x) && (nth 1 cs 0 =? x) && (nth 2 cs 0 =? x).
Lemma next_is_document_indicator_str (s : sc strin) : looked 4 s ->
  next_is_document_indicator str_ops s
  = Ok (if is_blank_or_breakz (nth 3 (si_chars (sc_in s)) 0)
        then (if n3 (si_chars (sc_in s)) 46 then true else n3 (si_chars (sc_in s)) 45) else false, s).
Proof.
  intros H. assert (H3 : looked 3 s) by (unfold looked in *; lia).
  unfold next_is_document_indicator, bind. rewrite (assert_buflen_ok _ _ _ H).
  unfold peekn at 1. cbn [peek_nth str_ops].
  destruct (is_blank_or_breakz _); [|reflexivity].
  rewrite (next_3_are_str _ _ _ _ H3). fold (n3 (si_chars (sc_in s)) 46).
  destruct (n3 _ 46); [reflexivity|]. rewrite (next_3_are_str _ _ _ _ H3). reflexivity.
Qed.
Lemma next_is_document_start_str (s : sc strin) : looked 4 s ->
  next_is_document_start str_ops s
  = Ok (if n3 (si_chars (sc_in s)) 45 then is_blank_or_breakz (nth 3 (si_chars (sc_in s)) 0) else false, s).
Proof.
  intros H. assert (H3 : looked 3 s) by (unfold looked in *; lia).
  unfold next_is_document_start, bind. rewrite (assert_buflen_ok _ _ _ H), (next_3_are_str _ _ _ _ H3).
  fold (n3 (si_chars (sc_in s)) 45). destruct (n3 _ 45); reflexivity.
Qed.
Lemma next_is_document_end_str (s : sc strin) : looked 4 s ->
  next_is_document_end str_ops s
  = Ok (if n3 (si_chars (sc_in s)) 46 then is_blank_or_breakz (nth 3 (si_chars (sc_in s)) 0) else false, s).
Proof.
  intros H. assert (H3 : looked 3 s) by (unfold looked in *; lia).
  unfold next_is_document_end, bind. rewrite (assert_buflen_ok _ _ _ H), (next_3_are_str _ _ _ _ H3).
  fold (n3 (si_chars (sc_in s)) 46). destruct (n3 _ 46); reflexivity.
Qed.

Ltac ifs :=
  repeat match goal with
         | |- context [if ?x then _ else _] => destruct x; cbn [bindo]
         end; try reflexivity.
(* The three byte-level tests in the words of the character-level ones.  With fewer than three bytes some [nth] is
   the default 0, which is not the character asked for; with exactly three the fourth is the default 0, a breakz. *)
Lemma sb_doc_three_bytes x bs : x <> 0 ->
  (let bytes := bs in
   if Nat.ltb (length bytes) 3 then Ok false else
   bindo (fourth_ends bytes) (fun t => if t then three_bytes_are x bytes else Ok false))
  = Ok (n3 bs x && is_blank_or_breakz (nth 3 bs 0)).
Proof.
  intros Hx. destruct bs as [|b0 [|b1 [|b2 [|b3 r]]]];
    unfold n3, fourth_ends, three_bytes_are; cbn [length Nat.ltb Nat.leb Nat.eqb byte_at nth_error bindo nth];
    rewrite ?(proj2 (N.eqb_neq 0 x)), ?andb_false_r by lia; try reflexivity;
    try change (is_blank_or_breakz 0) with true; ifs; cbn [andb]; rewrite ?andb_true_r, ?andb_false_r; reflexivity.
Qed.
Lemma sb_doc_indicator_bytes l bs :
  sb_next_is_document_indicator {| sb_bytes := bs; sb_look := l |}
  = Ok ((n3 bs 46 || n3 bs 45) && is_blank_or_breakz (nth 3 bs 0)).
Proof.
  destruct bs as [|b0 [|b1 [|b2 [|b3 r]]]];
    unfold n3, sb_next_is_document_indicator, fourth_ends;
    cbn [sb_bytes length Nat.ltb Nat.leb Nat.eqb byte_at nth_error bindo nth];
    change (0 =? 46) with false; change (0 =? 45) with false; rewrite ?andb_false_r; try reflexivity;
    try change (is_blank_or_breakz 0) with true;
    repeat match goal with
           | |- context [N.eqb ?a ?b] => destruct (N.eqb_spec a b); try subst; cbn [andb orb]; try lia
           end; ifs.
Qed.

Lemma peel_ascii x cs : 0 < x < 128 -> scalars cs ->
  (@nth chr 0 (bytes_of cs) 0 =? x) = (nth 0 cs 0 =? x) /\ (nth 0 cs 0 = x -> bytes_of cs = x :: bytes_of (tl cs)).
Proof.
  intros Hx Hs. destruct (front _ Hs) as [|c r Hc|c r h h2 t Hc Hh _ _ _]; cbn [nth tl].
  - split; [reflexivity|lia].
  - split; [reflexivity|intros ->; reflexivity].
  - rewrite (proj2 (N.eqb_neq h x)), (proj2 (N.eqb_neq c x)) by lia. split; [reflexivity|lia].
Qed.
Lemma first_byte_char p cs : ascii_only p -> scalars cs -> p (@nth chr 0 (bytes_of cs) 0) = p (nth 0 cs 0).
Proof.
  intros Hp Hs. destruct (front _ Hs) as [|c r Hc|c r h h2 t Hc Hh _ _ _]; [reflexivity|reflexivity|].
  cbn [nth]. rewrite (Hp h), (Hp c) by lia. reflexivity.
Qed.
Lemma three_ascii x cs : 0 < x < 128 -> scalars cs ->
  n3 (bytes_of cs) x && is_blank_or_breakz (nth 3 (bytes_of cs) 0) = n3 cs x && is_blank_or_breakz (nth 3 cs 0).
Proof.
  intros Hx Hs. pose proof (scalars_tl _ Hs) as Hs1. pose proof (scalars_tl _ Hs1) as Hs2. unfold n3.
  destruct (peel_ascii x cs Hx Hs) as [E P]. rewrite E. destruct (N.eqb_spec (nth 0 cs 0) x) as [A|]; [|reflexivity].
  rewrite (P A), <- !(nth_tl _ cs). cbn [nth andb]. clear E P A.
  destruct (peel_ascii x _ Hx Hs1) as [E P]. rewrite E. destruct (N.eqb_spec (nth 0 (tl cs) 0) x) as [A|]; [|reflexivity].
  rewrite (P A), <- !(nth_tl _ (tl cs)). cbn [nth andb]. clear E P A.
  destruct (peel_ascii x _ Hx Hs2) as [E P]. rewrite E. destruct (N.eqb_spec (nth 0 (tl (tl cs)) 0) x) as [A|]; [|reflexivity].
  rewrite (P A), <- !(nth_tl _ (tl (tl cs))). cbn [nth andb].
  apply (first_byte_char _ _ ao_blank_or_breakz). apply scalars_tl. exact Hs2.
Qed.

Lemma sb_next_is_document_indicator_refines :
  q_refines (looked 4) (next_is_document_indicator str_ops) sb_next_is_document_indicator.
Proof.
  intros s b (Hb & Hs & _) Hl. eexists. split; [apply next_is_document_indicator_str; exact Hl|].
  destruct b as [bs l]. cbn [sb_bytes] in Hb. rewrite sb_doc_indicator_bytes, Hb. f_equal.
  rewrite andb_orb_distrib_l, !three_ascii by (lia || exact Hs).
  destruct (n3 _ 46); destruct (n3 _ 45); destruct (is_blank_or_breakz _); reflexivity.
Qed.
Lemma sb_next_is_document_start_refines :
  q_refines (looked 4) (next_is_document_start str_ops) sb_next_is_document_start.
Proof.
  intros s b (Hb & Hs & _) Hl. eexists. split; [apply next_is_document_start_str; exact Hl|].
  unfold sb_next_is_document_start. rewrite sb_doc_three_bytes, Hb, three_ascii by (lia || exact Hs). reflexivity.
Qed.
Lemma sb_next_is_document_end_refines :
  q_refines (looked 4) (next_is_document_end str_ops) sb_next_is_document_end.
Proof.
  intros s b (Hb & Hs & _) Hl. eexists. split; [apply next_is_document_end_str; exact Hl|].
  unfold sb_next_is_document_end. rewrite sb_doc_three_bytes, Hb, three_ascii by (lia || exact Hs). reflexivity.
Qed.

(* 4. The overridden provided methods: consuming loops *)
(* the leading run of characters satisfying p, and what follows it *)
Fixpoint lead (p : chr -> bool) (cs : list chr) : list chr :=
  match cs with c :: r => if p c then c :: lead p r else [] | [] => [] end.
Fixpoint rest (p : chr -> bool) (cs : list chr) : list chr :=
  match cs with c :: r => if p c then rest p r else cs | [] => [] end.
Lemma lead_rest p cs : cs = lead p cs ++ rest p cs.
Proof. induction cs as [|c r IH]; [reflexivity|]. cbn [lead rest]. destruct (p c); [cbn [app]; f_equal; exact IH|reflexivity]. Qed.
Lemma lead_all p cs : Forall (fun c => p c = true) (lead p cs).
Proof. induction cs as [|c r IH]; [constructor|]. cbn [lead]. destruct (p c) eqn:E; [constructor; assumption|constructor]. Qed.
Lemma scalars_rest p cs : scalars cs -> scalars (rest p cs).
Proof.
  induction cs as [|c r IH]; intros H; [exact H|]. cbn [rest]. destruct (p c); [|exact H].
  apply IH. apply scalars_cons in H. apply H.
Qed.
Lemma rest_head p cs : match rest p cs with c :: _ => p c = false | [] => True end.
Proof. induction cs as [|c r IH]; [exact I|]. cbn [rest]. destruct (p c) eqn:E; [exact IH|exact E]. Qed.

Lemma ascii_bytes l : Forall (fun c => c < 128) l -> bytes_of l = l.
Proof.
  induction 1 as [|c l Hc _ IH]; [reflexivity|]. rewrite bytes_of_cons, IH. unfold utf8_encode.
  rewrite (proj2 (N.ltb_lt c 128)) by exact Hc. reflexivity.
Qed.
Lemma lead_ascii p cs : ascii_only p -> Forall (fun c => c < 128) (lead p cs).
Proof.
  intros Hp. eapply Forall_impl; [|apply lead_all]. cbn beta. intros c Hc.
  destruct (N.lt_ge_cases c 128) as [H|H]; [exact H|]. rewrite (Hp c H) in Hc. discriminate.
Qed.
Lemma bytes_lead_rest p cs : ascii_only p -> bytes_of cs = lead p cs ++ bytes_of (rest p cs).
Proof. intros Hp. rewrite (lead_rest p cs) at 1. rewrite bytes_of_app, (ascii_bytes _ (lead_ascii p cs Hp)). reflexivity. Qed.
Lemma length_bytes_of cs : (length cs <= length (bytes_of cs))%nat.
Proof.
  induction cs as [|c r IH]; [cbn; lia|]. rewrite bytes_of_cons, app_length. pose proof (utf8_encode_length c). cbn [length]. lia.
Qed.

(* &s[i..] / &s[..i] at the end of an ASCII prefix never panics: the next byte starts a character *)
Lemma boundary_after pre cs : scalars cs -> is_char_boundary (pre ++ bytes_of cs) (length pre) = true.
Proof.
  intros Hs. unfold is_char_boundary. destruct (length pre) as [|k] eqn:E; [reflexivity|]. rewrite <- E. clear k E.
  rewrite nth_error_app2, Nat.sub_diag by lia.
  destruct (front _ Hs) as [|c r Hc|c r h h2 t Hc Hh H2 H2' E].
  - cbn [nth_error]. rewrite app_nil_r. apply Nat.eqb_refl.
  - cbn [nth_error]. rewrite (proj2 (N.ltb_lt c 128)) by exact Hc. reflexivity.
  - cbn [nth_error]. rewrite (proj2 (N.leb_le 192 h)) by exact Hh. apply orb_true_r.
Qed.
Lemma slice_from_after pre cs : scalars cs -> slice_from (pre ++ bytes_of cs) (length pre) = Ok (bytes_of cs).
Proof. intros Hs. unfold slice_from. rewrite (boundary_after _ _ Hs), skipn_app_exact. reflexivity. Qed.
Lemma slice_to_after pre cs : scalars cs -> slice_to (pre ++ bytes_of cs) (length pre) = Ok pre.
Proof. intros Hs. unfold slice_to. rewrite (boundary_after _ _ Hs), firstn_app_exact. reflexivity. Qed.

(* the generic loops on str_ops *)
Definition stin (s : sc strin) (cs : list chr) (l : nat) : sc strin := set_in {| si_chars := cs; si_look := l |} s.
Lemma max11 l : Nat.max (Nat.max l 1) 1 = Nat.max l 1.
Proof. destruct l as [|[|l]]; reflexivity. Qed.
Lemma look_ch_str (s : sc strin) cs l : sc_in s = {| si_chars := cs; si_look := l |} ->
  look_ch str_ops s = Ok (nth 0 cs 0, stin s cs (Nat.max l 1)).
Proof. intros E. unfold look_ch, look, peek, peekn, bind. cbn [lookahead str_ops peek_nth sc_in set_in upd]. rewrite E. reflexivity. Qed.
Lemma in_skip_str (s : sc strin) cs l : sc_in s = {| si_chars := cs; si_look := l |} ->
  in_skip str_ops s = Ok (tt, stin s (tl cs) l).
Proof. intros E. unfold in_skip, modify. cbn [skip1 str_ops]. rewrite E. reflexivity. Qed.
Lemma stin_in s cs l : sc_in (stin s cs l) = {| si_chars := cs; si_look := l |}.
Proof. reflexivity. Qed.
Lemma stin_stin s cs l cs' l' : stin (stin s cs l) cs' l' = stin s cs' l'.
Proof. reflexivity. Qed.

Definition while_go (p : chr -> bool) :=
  fix go (f : nat) (k : N) : @M strin N :=
    match f with
    | O => oof
    | S f => bind (look_ch str_ops) (fun c => if p c then bind (in_skip str_ops) (fun _ => go f (k + 1)) else ret k)
    end.
Lemma in_skip_while_go fuel p : in_skip_while str_ops fuel p = while_go p fuel 0.
Proof. reflexivity. Qed.
Lemma while_go_str p : p 0 = false -> forall cs fuel k (s : sc strin) l,
  sc_in s = {| si_chars := cs; si_look := l |} -> (length cs < fuel)%nat ->
  while_go p fuel k s = Ok (k + N.of_nat (length (lead p cs)), stin s (rest p cs) (Nat.max l 1)).
Proof.
  intros H0. induction cs as [|c r IH]; intros fuel k s l E Hf; (destruct fuel as [|f]; [cbn [length] in Hf; lia|]).
  - cbn [while_go]. unfold bind. rewrite (look_ch_str _ _ _ E). cbn [nth]. rewrite H0. cbn [lead rest length].
    rewrite N.add_0_r. reflexivity.
  - cbn [while_go]. unfold bind at 1. rewrite (look_ch_str _ _ _ E). cbn [nth lead rest].
    destruct (p c).
    + unfold bind. rewrite (in_skip_str _ _ _ (stin_in _ _ _)). cbn [tl].
      rewrite (IH f (k + 1) _ _ (stin_in _ _ _)) by (cbn [length] in Hf; lia).
      rewrite stin_stin, stin_stin, max11. cbn [length]. rewrite Nat2N.inj_succ. f_equal. f_equal. lia.
    + cbn [length]. rewrite N.add_0_r. reflexivity.
Qed.

(* skip_while_non_breakz *)
Definition nb (c : chr) : bool := negb (is_breakz c).
Lemma ao_nb_neg c : 128 <= c -> nb c = true.
Proof. intros H. unfold nb. rewrite (ao_breakz c H). reflexivity. Qed.
Lemma non_breakz_run_spec : forall cs fuel k, scalars cs -> (length cs < fuel)%nat ->
  non_breakz_run fuel (bytes_of cs) k = Ok (bytes_of (rest nb cs), k + N.of_nat (length (lead nb cs))).
Proof.
  induction cs as [|c r IH]; intros fuel k Hs Hf; (destruct fuel as [|f]; [cbn [length] in Hf; lia|]).
  - cbn [non_breakz_run next_char bytes_of flat_map bindo lead rest length]. rewrite N.add_0_r. reflexivity.
  - cbn [non_breakz_run]. rewrite (next_char_cons _ _ Hs). cbn [bindo lead rest]. unfold nb at 1 3.
    destruct (is_breakz c); cbn [negb].
    + cbn [length]. rewrite N.add_0_r. reflexivity.
    + apply scalars_cons in Hs. rewrite (IH f (k + 1)) by (try apply Hs; cbn [length] in Hf; lia).
      cbn [length]. rewrite Nat2N.inj_succ. f_equal. f_equal. lia.
Qed.
Lemma sb_skip_while_non_breakz_refines fuel :
  m_refines (fun s => (length (si_chars (sc_in s)) < fuel)%nat) (in_skip_while_non_breakz str_ops fuel) sb_skip_while_non_breakz.
Proof.
  intros s b (Hb & Hs & Hl) Hf. unfold in_skip_while_non_breakz. rewrite in_skip_while_go.
  destruct (sc_in s) as [cs l] eqn:E. cbn [si_chars si_look] in *.
  erewrite while_go_str; [|reflexivity|exact E|exact Hf].
  eexists; eexists; eexists. split; [reflexivity|]. unfold sb_skip_while_non_breakz. rewrite Hb.
  rewrite (non_breakz_run_spec cs _ 0 Hs) by (pose proof (length_bytes_of cs); lia). cbn [bindo fst snd].
  split; [reflexivity|]. split; [reflexivity|]. split; [apply scalars_rest; exact Hs|]. cbn [si_look set_bytes sb_look].
  apply look_rel_max1. exact Hl.
Qed.

(* skip_while_blank: a BYTE index is returned as the number of characters *)
Lemma blank_run_spec : forall cs i, scalars cs -> blank_run (bytes_of cs) i = (i + length (lead is_blank cs))%nat.
Proof.
  induction cs as [|c r IH]; intros i Hs; [cbn; lia|].
  pose proof (scalars_cons _ _ Hs) as [_ Hr].
  destruct (front_cons _ _ Hs) as [[Hc ->]|(Hc & h & h2 & t & Hh & ->)].
  - cbn [blank_run lead]. destruct (is_blank c); [rewrite (IH (S i) Hr); cbn [length]; lia|cbn [length]; lia].
  - cbn [blank_run lead]. rewrite (ao_blank h), (ao_blank c) by lia. cbn [length]. lia.
Qed.
Lemma sb_skip_while_blank_refines fuel :
  m_refines (fun s => (length (si_chars (sc_in s)) < fuel)%nat) (in_skip_while_blank str_ops fuel) sb_skip_while_blank.
Proof.
  intros s b (Hb & Hs & Hl) Hf. unfold in_skip_while_blank. rewrite in_skip_while_go.
  destruct (sc_in s) as [cs l] eqn:E. cbn [si_chars si_look] in *.
  erewrite while_go_str; [|reflexivity|exact E|exact Hf].
  eexists; eexists; eexists. split; [reflexivity|]. unfold sb_skip_while_blank. rewrite Hb.
  rewrite (blank_run_spec cs 0%nat Hs). cbn [Nat.add].
  rewrite (bytes_lead_rest is_blank cs ao_blank) at 1.
  rewrite (slice_from_after _ _ (scalars_rest is_blank cs Hs)). cbn [bindo]. rewrite N.add_0_l.
  split; [reflexivity|]. split; [reflexivity|]. split; [apply scalars_rest; exact Hs|]. cbn [si_look set_bytes sb_look].
  apply look_rel_max1. exact Hl.
Qed.

(* ---- fetch_while_is_alpha: a number of BYTES is returned as the number of characters; the slice start is found by
        stepping back over the non-letter by its UTF-8 length ---- *)
Definition fetch_go :=
  fix go (f : nat) (acc : list chr) (k : N) : @M strin (list chr * N) :=
    match f with
    | O => oof
    | S f => bind (look_ch str_ops) (fun c =>
               if is_alpha c then bind (in_skip str_ops) (fun _ => go f (c :: acc) (k + 1)) else ret (acc, k))
    end.
Lemma in_fetch_while_alpha_go fuel acc : in_fetch_while_alpha str_ops fuel acc = fetch_go fuel acc 0.
Proof. reflexivity. Qed.
Lemma fetch_go_str : forall cs fuel acc k (s : sc strin) l,
  sc_in s = {| si_chars := cs; si_look := l |} -> (length cs < fuel)%nat ->
  fetch_go fuel acc k s = Ok ((rev (lead is_alpha cs) ++ acc, k + N.of_nat (length (lead is_alpha cs))),
                              stin s (rest is_alpha cs) (Nat.max l 1)).
Proof.
  induction cs as [|c r IH]; intros fuel acc k s l E Hf; (destruct fuel as [|f]; [cbn [length] in Hf; lia|]).
  - cbn [fetch_go]. unfold bind. rewrite (look_ch_str _ _ _ E). cbn [nth]. change (is_alpha 0) with false. cbv iota.
    cbn [lead rest length rev app]. rewrite N.add_0_r. reflexivity.
  - cbn [fetch_go]. unfold bind at 1. rewrite (look_ch_str _ _ _ E). cbn [nth lead rest].
    destruct (is_alpha c).
    + unfold bind. rewrite (in_skip_str _ _ _ (stin_in _ _ _)). cbn [tl].
      rewrite (IH f (c :: acc) (k + 1) _ _ (stin_in _ _ _)) by (cbn [length] in Hf; lia).
      rewrite stin_stin, stin_stin, max11. cbn [length rev]. rewrite Nat2N.inj_succ, <- app_assoc. cbn [app].
      f_equal. f_equal. f_equal. lia.
    + cbn [length rev app]. rewrite N.add_0_r. reflexivity.
Qed.
Lemma alpha_scan_spec : forall cs fuel, scalars cs -> (length cs < fuel)%nat ->
  alpha_scan fuel (bytes_of cs)
  = Ok (match rest is_alpha cs with c :: r => (Some c, bytes_of r) | [] => (None, []) end).
Proof.
  induction cs as [|c r IH]; intros fuel Hs Hf; (destruct fuel as [|f]; [cbn [length] in Hf; lia|]).
  - reflexivity.
  - cbn [alpha_scan]. rewrite (next_char_cons _ _ Hs). cbn [bindo rest]. destruct (is_alpha c); [|reflexivity].
    apply scalars_cons in Hs. apply IH; [apply Hs|cbn [length] in Hf; lia].
Qed.
Lemma char_len_utf8_spec c : char_len_utf8 c = length (utf8_encode c).
Proof. unfold char_len_utf8, utf8_encode. destruct (c <? 128); [reflexivity|]. destruct (c <? 2048); [reflexivity|]. destruct (c <? 65536); reflexivity. Qed.

Ltac clia := unfold chr in *; lia.
Theorem sb_fetch_while_is_alpha_refines fuel acc out : forall s b, RB (sc_in s) b -> (length (si_chars (sc_in s)) < fuel)%nat ->
  exists letters i' b',
    in_fetch_while_alpha str_ops fuel acc s = Ok ((rev letters ++ acc, N.of_nat (length letters)), set_in i' s)
    /\ sb_fetch_while_is_alpha out b = Ok ((out ++ bytes_of letters, N.of_nat (length letters)), b')
    /\ RB i' b'.
Proof.
  intros s b (Hb & Hs & Hl) Hf. rewrite in_fetch_while_alpha_go.
  destruct (sc_in s) as [cs l] eqn:E. cbn [si_chars si_look] in *.
  rewrite (fetch_go_str cs fuel acc 0 s l E Hf). rewrite N.add_0_l.
  exists (lead is_alpha cs), {| si_chars := rest is_alpha cs; si_look := Nat.max l 1 |}, (set_bytes b (bytes_of (rest is_alpha cs))).
  split; [reflexivity|].
  pose proof (lead_ascii is_alpha cs ao_alpha) as HA. pose proof (scalars_rest is_alpha cs Hs) as HR.
  pose proof (bytes_lead_rest is_alpha cs ao_alpha) as HB.
  unfold sb_fetch_while_is_alpha. rewrite Hb.
  rewrite (alpha_scan_spec cs _ Hs) by (pose proof (length_bytes_of cs); lia). cbn [bindo].
  rewrite (ascii_bytes _ HA).
  assert (Hfin : forall remaining, remaining = bytes_of (rest is_alpha cs) ->
     bindo (slice_to (bytes_of cs) (length (bytes_of cs) - length remaining))
       (fun pre => Ok (out ++ pre, N.of_nat (length (bytes_of cs) - length remaining), set_bytes b remaining))
     = Ok (out ++ lead is_alpha cs, N.of_nat (length (lead is_alpha cs)), set_bytes b (bytes_of (rest is_alpha cs)))).
  { intros remaining ->.
    assert (HN : (length (bytes_of cs) - length (bytes_of (rest is_alpha cs)) = length (lead is_alpha cs))%nat).
    { rewrite HB, app_length. clia. }
    rewrite HN. rewrite HB at 1. rewrite (slice_to_after _ _ HR). reflexivity. }
  destruct (rest is_alpha cs) as [|c r] eqn:ER.
  - cbn [fst snd bindo]. rewrite (Hfin [] eq_refl). split; [reflexivity|].
    split; [reflexivity|]. split; [constructor|]. cbn [si_look set_bytes sb_look]. apply look_rel_max1. exact Hl.
  - cbn [fst snd]. rewrite char_len_utf8_spec.
    assert (HL : (length (bytes_of cs) - length (bytes_of r) = length (lead is_alpha cs) + length (utf8_encode c))%nat).
    { rewrite HB, bytes_of_cons, !app_length. clia. }
    rewrite HL. destruct (Nat.ltb_spec (length (lead is_alpha cs) + length (utf8_encode c)) (length (utf8_encode c))) as [Hlt|_]; [clia|].
    replace (length (lead is_alpha cs) + length (utf8_encode c) - length (utf8_encode c))%nat with (length (lead is_alpha cs)) by clia.
    rewrite HB at 1. rewrite (slice_from_after _ _ HR). cbn [bindo]. rewrite (Hfin _ eq_refl).
    split; [reflexivity|]. split; [reflexivity|]. split; [exact HR|]. cbn [si_look set_bytes sb_look]. apply look_rel_max1. exact Hl.
Qed.

(* ---- skip_ws_to_eol: a byte-length difference plus per-character increments is returned as the number of
        characters; two flags; an early return that leaves the buffer alone ---- *)
(* what both compute, on characters: ((chars_consumed, flags | None = the error), remaining characters) *)
Fixpoint ws_spec (tabs : bool) (cs : list chr) (tab ws : bool) (n : N) : (N * option (bool * bool)) * list chr :=
  match cs with
  | c :: r => if c =? 32 then ws_spec tabs r tab true (n + 1)
              else if (c =? 9) && tabs then ws_spec tabs r true ws (n + 1)
              else if c =? 35 then
                     if negb tab && negb ws then ((n, None), cs)
                     else ((n + N.of_nat (length (lead nb r)) + 1, Some (tab, ws)), rest nb r)
              else ((n, Some (tab, ws)), cs)
  | [] => ((n, Some (tab, ws)), [])
  end.
Definition tabs_of (st : skiptabs) : bool := match st with SkipYes => true | SkipNo => false end.

Definition comment_go (K : N -> @M strin (N * option (bool * bool))) :=
  fix comment (f : nat) (k : N) : @M strin (N * option (bool * bool)) :=
    match f with
    | O => oof
    | S f => bind (look_ch str_ops) (fun c => if is_breakz c then K (k + 1)
                                              else bind (in_skip str_ops) (fun _ => comment f (k + 1)))
    end.
Lemma ws_unfold fuel st tab ws n :
  in_skip_ws_to_eol str_ops (S fuel) st tab ws n
  = bind (look_ch str_ops) (fun c =>
      if c =? 32 then bind (in_skip str_ops) (fun _ => in_skip_ws_to_eol str_ops fuel st tab true (n + 1))
      else if (c =? 9) && tabs_of st then
        bind (in_skip str_ops) (fun _ => in_skip_ws_to_eol str_ops fuel st true ws (n + 1))
      else if c =? 35 then
        if negb tab && negb ws then ret (n, None)
        else bind (in_skip str_ops) (fun _ => comment_go (in_skip_ws_to_eol str_ops fuel st tab ws) fuel n)
      else ret (n, Some (tab, ws))).
Proof. destruct st; reflexivity. Qed.

Lemma comment_go_str K : forall cs f k (s : sc strin) l,
  sc_in s = {| si_chars := cs; si_look := l |} -> (length cs < f)%nat ->
  comment_go K f k s = K (k + N.of_nat (length (lead nb cs)) + 1) (stin s (rest nb cs) (Nat.max l 1)).
Proof.
  induction cs as [|c r IH]; intros f k s l E Hf; (destruct f as [|f]; [cbn [length] in Hf; lia|]).
  - cbn [comment_go]. unfold bind. rewrite (look_ch_str _ _ _ E). cbn [nth]. change (is_breakz 0) with true. cbv iota.
    cbn [lead rest length]. rewrite N.add_0_r. reflexivity.
  - cbn [comment_go]. unfold bind at 1. rewrite (look_ch_str _ _ _ E). cbn [nth lead rest]. unfold nb at 1 3.
    destruct (is_breakz c); cbn [negb].
    + cbn [length]. rewrite N.add_0_r. reflexivity.
    + unfold bind. rewrite (in_skip_str _ _ _ (stin_in _ _ _)). cbn [tl].
      rewrite (IH f (k + 1) _ _ (stin_in _ _ _)) by (cbn [length] in Hf; lia).
      rewrite stin_stin, stin_stin, max11. cbn [length]. rewrite Nat2N.inj_succ. f_equal. lia.
Qed.
Lemma breakz_not_ws c : is_breakz c = true -> (c =? 32) = false /\ (c =? 9) = false /\ (c =? 35) = false.
Proof.
  unfold is_breakz, is_break, is_z. intros H.
  destruct (N.eqb_spec c 10); [subst; repeat split; reflexivity|].
  destruct (N.eqb_spec c 13); [subst; repeat split; reflexivity|].
  destruct (N.eqb_spec c 0); [subst; repeat split; reflexivity|]. discriminate H.
Qed.
Lemma ws_at_breakz fuel st tab ws n (s : sc strin) cs l :
  sc_in s = {| si_chars := cs; si_look := l |} -> is_breakz (nth 0 cs 0) = true ->
  in_skip_ws_to_eol str_ops (S fuel) st tab ws n s = Ok ((n, Some (tab, ws)), stin s cs (Nat.max l 1)).
Proof.
  intros E H. rewrite ws_unfold. unfold bind. rewrite (look_ch_str _ _ _ E).
  destruct (breakz_not_ws _ H) as (-> & -> & ->). reflexivity.
Qed.
Lemma rest_nb_breakz cs : is_breakz (nth 0 (rest nb cs) 0) = true.
Proof.
  pose proof (rest_head nb cs) as H. destruct (rest nb cs) as [|c r]; [reflexivity|].
  cbn [nth]. unfold nb in H. destruct (is_breakz c); [reflexivity|discriminate H].
Qed.

Lemma ws_str st : forall cs fuel tab ws n (s : sc strin) l,
  sc_in s = {| si_chars := cs; si_look := l |} -> (length cs < fuel)%nat ->
  in_skip_ws_to_eol str_ops fuel st tab ws n s
  = Ok (fst (ws_spec (tabs_of st) cs tab ws n), stin s (snd (ws_spec (tabs_of st) cs tab ws n)) (Nat.max l 1)).
Proof.
  induction cs as [|c r IH]; intros fuel tab ws n s l E Hf; (destruct fuel as [|f]; [cbn [length] in Hf; lia|]).
  - rewrite ws_unfold. unfold bind. rewrite (look_ch_str _ _ _ E). reflexivity.
  - rewrite ws_unfold. unfold bind at 1. rewrite (look_ch_str _ _ _ E). cbn [nth ws_spec].
    destruct (c =? 32).
    { unfold bind. rewrite (in_skip_str _ _ _ (stin_in _ _ _)). cbn [tl].
      rewrite (IH f tab true (n + 1) _ _ (stin_in _ _ _)) by (cbn [length] in Hf; lia).
      rewrite stin_stin, stin_stin, max11. reflexivity. }
    destruct ((c =? 9) && tabs_of st).
    { unfold bind. rewrite (in_skip_str _ _ _ (stin_in _ _ _)). cbn [tl].
      rewrite (IH f true ws (n + 1) _ _ (stin_in _ _ _)) by (cbn [length] in Hf; lia).
      rewrite stin_stin, stin_stin, max11. reflexivity. }
    destruct (c =? 35); [|reflexivity].
    destruct (negb tab && negb ws); [reflexivity|].
    unfold bind. rewrite (in_skip_str _ _ _ (stin_in _ _ _)). cbn [tl].
    rewrite (comment_go_str _ r f n _ _ (stin_in _ _ _)) by (cbn [length] in Hf; lia).
    destruct f as [|f']; [cbn [length] in Hf; lia|].
    rewrite (ws_at_breakz f' st tab ws _ _ _ _ (stin_in _ _ _) (rest_nb_breakz r)).
    rewrite !stin_stin, !max11. reflexivity.
Qed.

(* the byte-level side against the same specification; [pre] = the ASCII blanks already trimmed *)
Lemma set_bytes_same b : set_bytes b (sb_bytes b) = b.
Proof. destruct b. reflexivity. Qed.
Lemma ws_bytes tabs b : forall cs pre tab ws, scalars cs -> sb_bytes b = pre ++ bytes_of cs ->
  (tab = false -> ws = false -> pre = []) ->
  skip_ws_finish b (pre ++ bytes_of cs) (strip_ws tabs (bytes_of cs) tab ws)
  = Ok (fst (ws_spec tabs cs tab ws (N.of_nat (length pre))),
        set_bytes b (bytes_of (snd (ws_spec tabs cs tab ws (N.of_nat (length pre)))))).
Proof.
  induction cs as [|c r IH]; intros pre tab ws Hs Hb Hpre.
  - cbn [bytes_of flat_map strip_ws ws_spec fst snd]. unfold skip_ws_finish. cbn [fst snd is_empty negb length].
    rewrite app_nil_r, Nat.sub_0_r. destruct (Nat.ltb_spec (length pre) 0); [lia|]. reflexivity.
  - pose proof (scalars_cons _ _ Hs) as [_ Hr].
    assert (Hlen : forall X : list N, Nat.ltb (length (pre ++ X)) (length X) = false /\ (length (pre ++ X) - length X = length pre)%nat).
    { intros X. rewrite app_length. split; [apply Nat.ltb_ge; lia|lia]. }
    destruct (front_cons _ _ Hs) as [[Hc EB]|(Hc & h & h2 & t & Hh & EB)].
    + rewrite EB. cbn [strip_ws ws_spec]. destruct (N.eqb_spec c 32) as [->|N32].
      { change (32 :: bytes_of r) with ([32] ++ bytes_of r). rewrite app_assoc.
        rewrite IH; [|exact Hr|rewrite Hb, EB, <- app_assoc; reflexivity|discriminate].
        rewrite app_length. cbn [length]. replace (N.of_nat (length pre + 1)) with (N.of_nat (length pre) + 1) by lia. reflexivity. }
      rewrite (andb_comm (c =? 9) tabs). destruct (tabs && (c =? 9)) eqn:ET.
      { apply andb_true_iff in ET. destruct ET as [_ ET]. apply N.eqb_eq in ET. subst c.
        change (9 :: bytes_of r) with ([9] ++ bytes_of r). rewrite app_assoc.
        rewrite IH; [|exact Hr|rewrite Hb, EB, <- app_assoc; reflexivity|discriminate].
        rewrite app_length. cbn [length]. replace (N.of_nat (length pre + 1)) with (N.of_nat (length pre) + 1) by lia. reflexivity. }
      unfold skip_ws_finish. cbn [fst snd is_empty negb byte_at nth_error bindo].
      destruct (Hlen (c :: bytes_of r)) as [-> ->].
      destruct (c =? 35) eqn:E35.
      * destruct (negb tab && negb ws) eqn:ETW.
        { cbn [fst snd].
          apply andb_true_iff in ETW. destruct ETW as [Ht Hw]. apply negb_true_iff in Ht, Hw.
          rewrite (Hpre Ht Hw) in Hb. cbn [app] in Hb. rewrite <- Hb, set_bytes_same. reflexivity. }
        rewrite <- EB. rewrite (non_breakz_run_spec (c :: r) _ _ Hs) by (pose proof (length_bytes_of (c :: r)); lia).
        cbn [bindo fst snd lead rest]. apply N.eqb_eq in E35. subst c. change (nb 35) with true. cbv iota.
        cbn [length]. rewrite Nat2N.inj_succ. f_equal. f_equal. f_equal. lia.
      * cbn [fst snd]. rewrite <- EB. reflexivity.
    + rewrite EB. cbn [strip_ws ws_spec].
      rewrite (proj2 (N.eqb_neq h 32)), (proj2 (N.eqb_neq h 9)), (proj2 (N.eqb_neq c 32)), (proj2 (N.eqb_neq c 9)),
        (proj2 (N.eqb_neq c 35)) by lia.
      rewrite andb_false_r. cbn [andb].
      unfold skip_ws_finish. cbn [fst snd is_empty negb byte_at nth_error bindo].
      destruct (Hlen (h :: h2 :: t ++ bytes_of r)) as [-> ->].
      rewrite (proj2 (N.eqb_neq h 35)) by lia. rewrite <- EB. reflexivity.
Qed.

Lemma ws_spec_scalars tabs : forall cs tab ws n, scalars cs -> scalars (snd (ws_spec tabs cs tab ws n)).
Proof.
  induction cs as [|c r IH]; intros tab ws n Hs; [constructor|]. cbn [ws_spec].
  pose proof (scalars_cons _ _ Hs) as [_ Hr].
  destruct (c =? 32); [apply IH; exact Hr|]. destruct ((c =? 9) && _); [apply IH; exact Hr|].
  destruct (c =? 35); [|exact Hs]. destruct (negb tab && negb ws); [exact Hs|]. cbn [snd]. apply scalars_rest. exact Hr.
Qed.
Lemma sb_skip_ws_to_eol_refines fuel st :
  m_refines (fun s => (length (si_chars (sc_in s)) < fuel)%nat) (in_skip_ws_to_eol str_ops fuel st false false 0) (sb_skip_ws_to_eol st).
Proof.
  intros s b (Hb & Hs & Hl) Hf. destruct (sc_in s) as [cs l] eqn:E. cbn [si_chars si_look] in *.
  rewrite (ws_str st cs fuel false false 0 s l E Hf).
  eexists; eexists; eexists. split; [reflexivity|].
  unfold sb_skip_ws_to_eol. rewrite Hb. fold (tabs_of st).
  pose proof (ws_bytes (tabs_of st) b cs [] false false Hs Hb (fun _ _ => eq_refl)) as W.
  cbn [app length N.of_nat] in W. rewrite W. split; [reflexivity|].
  split; [reflexivity|]. split; [|cbn [si_look set_bytes sb_look]; apply look_rel_max1; exact Hl].
  cbn [si_chars]. apply ws_spec_scalars. exact Hs.
Qed.

(* 5. The lookahead counter, and the assembly *)
(* buf_is_empty() == (buflen() == 0): same answer whenever the byte-level counter is not 0, or the counters are equal *)
Lemma sb_buf_is_empty_refines : forall s b, RB (sc_in s) b -> ((1 <= sb_look b)%nat \/ si_look (sc_in s) = sb_look b) ->
  exists a, buf_is_empty str_ops s = Ok (a, s) /\ sb_buf_is_empty b = a.
Proof.
  intros s b (_ & _ & Hl) H. eexists. split; [reflexivity|]. unfold sb_buf_is_empty, sb_buflen. cbn [buflen str_ops].
  destruct Hl as [->|[Hb Hc]]; [reflexivity|]. destruct H as [H|H]; [lia|]. rewrite H. reflexivity.
Qed.
(* the one observable difference of the four consuming overrides, on the empty text with nothing looked ahead:
   the provided skip_while_blank leaves buflen() = 1, the override leaves it 0 *)
Lemma consuming_overrides_skip_lookahead :
  let s := init_sc {| si_chars := []; si_look := 0 |} in
  let b := {| sb_bytes := []; sb_look := 0 |} in
  RB (sc_in s) b
  /\ in_skip_while_blank str_ops 1 s = Ok (0, set_in {| si_chars := []; si_look := 1 |} s)
  /\ sb_skip_while_blank b = Ok (0, {| sb_bytes := []; sb_look := 0 |}).
Proof. split; [split; [reflexivity|split; [constructor|left; reflexivity]]|]. split; reflexivity. Qed.

(* Everything at once: every method of `impl Input for StrInput`, at byte level, against the character-level instance
   and the provided-method definitions of the scanner model. *)
Theorem str_bytes_refines_chars :
  (* required methods = the primitives of InputOps *)
  (forall s b, RB s b ->
     (forall n, exists s' b', lookahead str_ops n s = Ok s' /\ lookahead bytes_ops n b = Ok b' /\ RB s' b')
     /\ look_rel (buflen str_ops s) (buflen bytes_ops b)
     /\ ((1 <= buflen bytes_ops b)%nat -> buflen bytes_ops b = buflen str_ops s)
     /\ bufmaxlen bytes_ops = bufmaxlen str_ops
     /\ (forall n, peek_nth bytes_ops n b = peek_nth str_ops n s)
     /\ RB (skip1 str_ops s) (skip1 bytes_ops b)
     /\ (forall n, exists s' b', skip_n str_ops n s = Ok s' /\ skip_n bytes_ops n b = Ok b' /\ RB s' b')
     /\ (exists o s' b', raw_read_non_breakz str_ops s = Ok (o, s') /\ raw_read_non_breakz bytes_ops b = Ok (o, b') /\ RB s' b')
     /\ (exists b', sb_raw_read_ch b = Ok (nth 0 (si_chars s) 0, b') /\ RB (skip1 str_ops s) b'))
  (* overridden provided methods: queries *)
  /\ q_refines any (peek str_ops) sb_peek
  /\ (forall n, q_refines any (peekn str_ops n) (sb_peek_nth n))
  /\ m_refines any (look_ch str_ops) sb_look_ch
  /\ (forall c, q_refines any (next_char_is str_ops c) (sb_next_char_is c))
  /\ (forall n c, q_refines any (nth_char_is str_ops n c) (sb_nth_char_is n c))
  /\ (forall a c, a <> 0 -> c <> 0 -> q_refines (looked 2) (next_2_are str_ops a c) (sb_next_2_are a c))
  /\ (forall a c d, a <> 0 -> c <> 0 -> d <> 0 -> q_refines (looked 3) (next_3_are str_ops a c d) (sb_next_3_are a c d))
  /\ q_refines (looked 4) (next_is_document_indicator str_ops) sb_next_is_document_indicator
  /\ q_refines (looked 4) (next_is_document_start str_ops) sb_next_is_document_start
  /\ q_refines (looked 4) (next_is_document_end str_ops) sb_next_is_document_end
  /\ (forall fl, q_refines nonempty_in (next_can_be_plain_scalar str_ops fl) (sb_next_can_be_plain_scalar fl))
  /\ q_refines any (next_is str_ops (fun c => is_blank c || is_break c)) sb_next_is_blank_or_break
  /\ q_refines any (next_is str_ops is_blank_or_breakz) sb_next_is_blank_or_breakz
  /\ q_refines any (next_is str_ops is_blank) sb_next_is_blank
  /\ q_refines any (next_is str_ops is_break) sb_next_is_break
  /\ q_refines any (next_is str_ops is_breakz) sb_next_is_breakz
  /\ q_refines any (next_is str_ops is_z) sb_next_is_z
  /\ q_refines any (next_is str_ops is_flow) sb_next_is_flow
  /\ q_refines any (next_is str_ops is_digit) sb_next_is_digit
  /\ q_refines any (next_is str_ops is_alpha) sb_next_is_alpha
  (* overridden provided methods: consuming loops (fuel of the generic loop > number of characters left) *)
  /\ (forall fuel st, m_refines (fun s => (length (si_chars (sc_in s)) < fuel)%nat)
                        (in_skip_ws_to_eol str_ops fuel st false false 0) (sb_skip_ws_to_eol st))
  /\ (forall fuel, m_refines (fun s => (length (si_chars (sc_in s)) < fuel)%nat)
                        (in_skip_while_non_breakz str_ops fuel) sb_skip_while_non_breakz)
  /\ (forall fuel, m_refines (fun s => (length (si_chars (sc_in s)) < fuel)%nat)
                        (in_skip_while_blank str_ops fuel) sb_skip_while_blank)
  /\ (forall fuel acc out s b, RB (sc_in s) b -> (length (si_chars (sc_in s)) < fuel)%nat ->
        exists letters i' b',
          in_fetch_while_alpha str_ops fuel acc s = Ok ((rev letters ++ acc, N.of_nat (length letters)), set_in i' s)
          /\ sb_fetch_while_is_alpha out b = Ok ((out ++ bytes_of letters, N.of_nat (length letters)), b')
          /\ RB i' b').
Proof.
  split.
  { intros s b H. destruct (bytes_ops_refines_str_ops s b H) as (A1 & A2 & A3 & A4 & A5 & A6 & A7 & A8).
    repeat (split; [assumption|]). apply sb_raw_read_ch_spec. exact H. }
  split; [exact sb_peek_refines|]. split; [exact sb_peek_nth_refines|]. split; [exact sb_look_ch_refines|].
  split; [exact sb_next_char_is_refines|]. split; [exact sb_nth_char_is_refines|].
  split; [exact sb_next_2_are_refines|]. split; [exact sb_next_3_are_refines|].
  split; [exact sb_next_is_document_indicator_refines|]. split; [exact sb_next_is_document_start_refines|].
  split; [exact sb_next_is_document_end_refines|]. split; [exact sb_next_can_be_plain_scalar_refines|].
  split; [apply first_byte_refines; [apply ao_or; [apply ao_blank|apply ao_break]|reflexivity]|].
  split; [apply (first_byte_refines true is_blank_or_breakz); [apply ao_blank_or_breakz|reflexivity]|].
  split; [apply first_byte_refines; [apply ao_blank|reflexivity]|].
  split; [apply first_byte_refines; [apply ao_break|reflexivity]|].
  split; [apply first_byte_refines; [apply ao_breakz|reflexivity]|].
  split; [apply first_byte_refines; [apply ao_z|reflexivity]|].
  split; [apply first_byte_refines; [apply ao_flow|reflexivity]|].
  split; [apply first_byte_refines; [apply ao_digit|reflexivity]|].
  split; [apply first_byte_refines; [apply ao_alpha|reflexivity]|].
  split; [exact sb_skip_ws_to_eol_refines|].
  split; [exact sb_skip_while_non_breakz_refines|]. split; [exact sb_skip_while_blank_refines|].
  exact sb_fetch_while_is_alpha_refines.
Qed.

(* RB is satisfiable for every text of Unicode scalar values, and the encoding has only bytes *)
Lemma RB_init cs : scalars cs -> RB {| si_chars := cs; si_look := 0 |} {| sb_bytes := bytes_of cs; sb_look := 0 |}.
Proof. intros H. split; [reflexivity|]. split; [exact H|left; reflexivity]. Qed.
Lemma bytes_of_bytes cs : scalars cs -> Forall (fun b => b < 256) (bytes_of cs).
Proof.
  induction 1 as [|c r Hc _ IH]; [constructor|]. rewrite bytes_of_cons. apply Forall_app. split; [|exact IH].
  apply utf8_encode_bytes. apply is_scalar_le. exact Hc.
Qed.
(* the encoding is injective: related byte states determine the characters *)
Lemma bytes_of_inj : forall a b, scalars a -> scalars b -> bytes_of a = bytes_of b -> a = b.
Proof.
  induction a as [|x a IH]; intros b Ha Hb E.
  - destruct b as [|y b]; [reflexivity|]. rewrite bytes_of_cons in E. pose proof (utf8_encode_length y).
    apply (f_equal (@length N)) in E. rewrite app_length in E. cbn [bytes_of flat_map length] in E. lia.
  - destruct b as [|y b].
    + rewrite bytes_of_cons in E. pose proof (utf8_encode_length x).
      apply (f_equal (@length N)) in E. rewrite app_length in E. cbn [bytes_of flat_map length] in E. lia.
    + pose proof (next_char_cons _ _ Ha) as Na. pose proof (next_char_cons _ _ Hb) as Nb. rewrite E in Na.
      rewrite Na in Nb. inversion Nb; subst. f_equal. apply scalars_cons in Ha, Hb. apply IH; [apply Ha|apply Hb|assumption].
Qed.
Lemma bytes_relation_total : forall cs, scalars cs ->
  RB {| si_chars := cs; si_look := 0 |} {| sb_bytes := bytes_of cs; sb_look := 0 |}
  /\ Forall (fun b => b < 256) (bytes_of cs)
  /\ (forall cs', scalars cs' -> bytes_of cs' = bytes_of cs -> cs' = cs).
Proof.
  intros cs H. split; [apply RB_init; exact H|]. split; [apply bytes_of_bytes; exact H|].
  intros cs' H' E. apply bytes_of_inj; assumption.
Qed.
