(* C06 — rejection lemmas: which ill-formed token streams / character sequences the model turns into an error.
   Parser layer: statements over ARBITRARY remaining token streams, phrased with [toks_ahead] (the one-token cache
   followed by the tokens the scanner will still deliver).  Scanner layer: over [str_ops]. *)
From Coq Require Import List NArith ZArith Bool Lia.
Import ListNotations.
Require Import Parser SBase SPrim SDir SScalar SFetch Pipe Grammar C02base C02rest C02tail C02run DocReset ParserView ListKit.

Arguments N.add : simpl never.
Arguments N.sub : simpl never.
Arguments N.mul : simpl never.
Arguments N.eqb : simpl never.
Arguments N.ltb : simpl never.
Arguments N.leb : simpl never.

(* the remaining token stream of a parser *)
Definition toks_ahead (p : parser) : list token :=
  match p_token p with Some t => t :: p_toks p | None => p_toks p end.

Lemma peek_norm p t r : toks_ahead p = t :: r -> Parser.peek p = Parser.Ok (t, set_tok p r (Some t)).
Proof.
  unfold toks_ahead, Parser.peek. destruct p as [tk c stk st an ai tg kt]. cbn.
  destruct c as [t'|]; intros H.
  - inversion H; subst. reflexivity.
  - rewrite H. reflexivity.
Qed.

Lemma toks_ahead_init toks keep : toks_ahead (init_parser toks keep) = toks.
Proof. reflexivity. Qed.

Ltac pk H := rewrite (peek_norm _ _ _ H); cbn.

(* the parser-level verdict of a run that starts in [p] *)
Definition run_end (fuel : nat) (p : parser) (se : scan_end) (acc : list (event * span)) : pend :=
  snd (parse_all fuel p se acc).

Lemma run_err1 fuel p se acc s m :
  p_state p <> SEnd -> state_machine p = Parser.Err (PErr s m) -> run_end (S fuel) p se acc = PParseErr s m.
Proof.
  intros HE H. unfold run_end. rewrite parse_all_S. unfold step_result. rewrite H.
  destruct (p_state p); try reflexivity. congruence.
Qed.

Lemma run_ok1 fuel p se acc ev p' :
  p_state p <> SEnd -> state_machine p = Parser.Ok (ev, p') ->
  run_end (S fuel) p se acc = run_end fuel p' se (ev :: acc).
Proof.
  intros HE H. unfold run_end. rewrite parse_all_S. unfold step_result. rewrite H.
  destruct (p_state p); try reflexivity. congruence.
Qed.

(* R1 + R2 — a flow collection that is still open when the stream (or the document, or the enclosing *)
(* block) ends, or that meets a closer of the other kind: the run ends in a parse error at that token  *)
Arguments run_end : simpl never.

(* tokens that can neither continue nor close a flow collection *)
Definition flow_stopper (tk : tok) : bool :=
  match tk with
  | TStreamStart | TStreamEnd | TVersionDirective _ _ | TTagDirective _ _ | TDocumentStart | TDocumentEnd
  | TBlockSequenceStart | TBlockMappingStart | TBlockEnd | TBlockEntry => true
  | _ => false
  end.

(* which kind of flow collection a state is inside of (true: sequence, false: mapping); the two First* states still have
   the opening bracket in front of them and are treated separately *)
Definition flow_family (st : pstate) : option bool :=
  match st with
  | SFlowSequenceEntry | SFlowSequenceEntryMappingKey | SFlowSequenceEntryMappingValue | SFlowSequenceEntryMappingEnd _ => Some true
  | SFlowMappingKey | SFlowMappingValue | SFlowMappingEmptyValue => Some false
  | _ => None
  end.

Definition bad_in_flow (seq : bool) (tk : tok) : bool :=
  flow_stopper tk || (if seq then match tk with TFlowMappingEnd => true | _ => false end
                      else match tk with TFlowSequenceEnd => true | _ => false end).

Definition flow_err_site (s : N) : Prop := s = 6%N \/ s = 7%N \/ s = 11%N.

(* such a token is none of those a flow state goes on with ... *)
Lemma bad_in_flow_kind seq tk :
  bad_in_flow seq tk = true ->
  tis (if seq then TFlowSequenceEnd else TFlowMappingEnd) tk = false
  /\ tis TFlowEntry tk = false /\ tis TKey tk = false /\ tis TValue tk = false.
Proof. destruct seq, tk; cbn; intros H; first [discriminate H | repeat split]. Qed.

(* ... and does not start a node *)
Lemma parse_node_stopped seq p sp tk r :
  toks_ahead p = (sp, tk) :: r -> bad_in_flow seq tk = true ->
  parse_node p false false = Parser.Err (PErr 11 (sp_start sp)).
Proof.
  intros HT HB. unfold parse_node. rewrite (peek_norm _ _ _ HT).
  destruct seq, tk; cbn in HB; first [discriminate HB | reflexivity].
Qed.

(* a further peek, at a parser whose cache and tokens are known *)
Ltac peek_next := match goal with |- context [Parser.peek ?q] => rewrite (peek_norm q _ _ eq_refl) end.

Lemma flow_sequence_entry_stopped p sp tk r :
  p_state p = SFlowSequenceEntry -> toks_ahead p = (sp, tk) :: r -> bad_in_flow true tk = true ->
  state_machine p = Parser.Err (PErr 7 (sp_start sp)).
Proof.
  intros HS HT HB. destruct (bad_in_flow_kind _ _ HB) as (KE & KF & KK & KV).
  unfold state_machine. rewrite HS, flow_sequence_entry_if. cbn beta iota.
  rewrite (peek_norm _ _ _ HT). cbn [fst snd].
  rewrite KE, KF. reflexivity.
Qed.

Lemma flow_mapping_key_stopped p sp tk r :
  p_state p = SFlowMappingKey -> toks_ahead p = (sp, tk) :: r -> bad_in_flow false tk = true ->
  state_machine p = Parser.Err (PErr 6 (sp_start sp)).
Proof.
  intros HS HT HB. destruct (bad_in_flow_kind _ _ HB) as (KE & KF & KK & KV).
  unfold state_machine. rewrite HS, flow_mapping_key_if. cbn beta iota.
  rewrite (peek_norm _ _ _ HT). cbn [fst snd].
  rewrite KE.
  peek_next. cbn [fst snd].
  rewrite KF. reflexivity.
Qed.

Lemma flow_sequence_first_entry_stopped p t0 sp tk r :
  p_state p = SFlowSequenceFirstEntry -> toks_ahead p = t0 :: (sp, tk) :: r -> bad_in_flow true tk = true ->
  state_machine p = Parser.Err (PErr 11 (sp_start sp)).
Proof.
  intros HS HT HB. destruct (bad_in_flow_kind _ _ HB) as (KE & KF & KK & KV).
  unfold state_machine. rewrite HS, flow_sequence_entry_if. cbn beta iota.
  rewrite (peek_norm _ _ _ HT). cbn [fst snd].
  peek_next. cbn [fst snd].
  rewrite KE.
  peek_next. cbn [fst snd].
  rewrite KE, KK.
  apply (parse_node_stopped true _ sp tk r); [reflexivity | exact HB].
Qed.

Lemma flow_mapping_first_key_stopped p t0 sp tk r :
  p_state p = SFlowMappingFirstKey -> toks_ahead p = t0 :: (sp, tk) :: r -> bad_in_flow false tk = true ->
  state_machine p = Parser.Err (PErr 11 (sp_start sp)).
Proof.
  intros HS HT HB. destruct (bad_in_flow_kind _ _ HB) as (KE & KF & KK & KV).
  unfold state_machine. rewrite HS, flow_mapping_key_if. cbn beta iota.
  rewrite (peek_norm _ _ _ HT). cbn [fst snd].
  peek_next. cbn [fst snd].
  rewrite KE.
  peek_next. cbn [fst snd].
  rewrite KK, KV, KE.
  apply (parse_node_stopped false _ sp tk r); [reflexivity | exact HB].
Qed.

(* R2 — a closing bracket of the other kind *)
Lemma flow_seq_entry_mapping_end p sp r :
  p_state p = SFlowSequenceEntry -> toks_ahead p = (sp, TFlowMappingEnd) :: r ->
  state_machine p = Parser.Err (PErr 7 (sp_start sp)).
Proof. intros HS HT. exact (flow_sequence_entry_stopped p sp _ r HS HT eq_refl). Qed.

Lemma flow_seq_first_entry_mapping_end p t0 sp r :
  p_state p = SFlowSequenceFirstEntry -> toks_ahead p = t0 :: (sp, TFlowMappingEnd) :: r ->
  state_machine p = Parser.Err (PErr 11 (sp_start sp)).
Proof. intros HS HT. exact (flow_sequence_first_entry_stopped p t0 sp _ r HS HT eq_refl). Qed.

Lemma flow_map_key_sequence_end p sp r :
  p_state p = SFlowMappingKey -> toks_ahead p = (sp, TFlowSequenceEnd) :: r ->
  state_machine p = Parser.Err (PErr 6 (sp_start sp)).
Proof. intros HS HT. exact (flow_mapping_key_stopped p sp _ r HS HT eq_refl). Qed.

Lemma flow_map_first_key_sequence_end p t0 sp r :
  p_state p = SFlowMappingFirstKey -> toks_ahead p = t0 :: (sp, TFlowSequenceEnd) :: r ->
  state_machine p = Parser.Err (PErr 11 (sp_start sp)).
Proof. intros HS HT. exact (flow_mapping_first_key_stopped p t0 sp _ r HS HT eq_refl). Qed.

(* the states inside a pair of a flow sequence, and behind a key of a flow mapping, first move on to the entry state *)
Theorem open_flow_rejected p k sp tk r :
  flow_family (p_state p) = Some k -> toks_ahead p = (sp, tk) :: r -> bad_in_flow k tk = true ->
  forall fuel se acc, exists s, flow_err_site s /\ run_end (3 + fuel) p se acc = PParseErr s (sp_start sp).
Proof.
  intros HF HT HB fuel se acc. cbn [Nat.add].
  destruct (bad_in_flow_kind _ _ HB) as (KE & KF & _ & KV).
  destruct (p_state p) eqn:HS; cbn in HF; try discriminate; inversion HF; subst k; cbn beta iota in KE.
  - exists 7%N. split; [right; left; reflexivity|].
    apply run_err1; [congruence|]. exact (flow_sequence_entry_stopped p sp tk r HS HT HB).
  - exists 11%N. split; [right; right; reflexivity|].
    apply run_err1; [congruence|]. unfold state_machine. rewrite HS, flow_sequence_entry_mapping_key_if.
    unfold node_or_empty. rewrite (peek_norm _ _ _ HT). cbn beta iota.
    cbn [tin existsb snd]. rewrite KV, KF, KE. cbn [orb].
    apply (parse_node_stopped true _ sp tk r); [reflexivity | exact HB].
  - exists 7%N. split; [right; left; reflexivity|].
    erewrite run_ok1; [ | congruence | ].
    2:{ unfold state_machine. rewrite HS, flow_sequence_entry_mapping_value_if, (peek_norm _ _ _ HT). cbn beta iota.
        cbn [snd fst]. rewrite KV. reflexivity. }
    erewrite run_ok1; [ | discriminate | reflexivity ].
    apply run_err1; [discriminate|]. apply (flow_sequence_entry_stopped _ sp tk r); [reflexivity | reflexivity | exact HB].
  - exists 7%N. split; [right; left; reflexivity|].
    erewrite run_ok1; [ | congruence | unfold state_machine; rewrite HS; reflexivity ].
    apply run_err1; [discriminate|]. apply (flow_sequence_entry_stopped _ sp tk r); [reflexivity | exact HT | exact HB].
  - exists 6%N. split; [left; reflexivity|].
    apply run_err1; [congruence|]. exact (flow_mapping_key_stopped p sp tk r HS HT HB).
  - exists 6%N. split; [left; reflexivity|].
    erewrite run_ok1; [ | congruence | ].
    2:{ unfold state_machine. rewrite HS, flow_mapping_value_if, (peek_norm _ _ _ HT). cbn beta iota.
        cbn [snd fst]. rewrite KV. reflexivity. }
    apply run_err1; [discriminate|]. apply (flow_mapping_key_stopped _ sp tk r); [reflexivity | reflexivity | exact HB].
  - exists 6%N. split; [left; reflexivity|].
    erewrite run_ok1; [ | congruence | ].
    2:{ unfold state_machine. rewrite HS, flow_mapping_value_if, (peek_norm _ _ _ HT). reflexivity. }
    apply run_err1; [discriminate|]. apply (flow_mapping_key_stopped _ sp tk r); [reflexivity | reflexivity | exact HB].
Qed.

(* the same right behind the opening bracket (the First* states still have the opener [t0] in front of them) *)
Theorem open_flow_first_rejected p (seq : bool) t0 sp tk r :
  p_state p = (if seq then SFlowSequenceFirstEntry else SFlowMappingFirstKey) ->
  toks_ahead p = t0 :: (sp, tk) :: r -> bad_in_flow seq tk = true ->
  state_machine p = Parser.Err (PErr 11 (sp_start sp)).
Proof.
  intros HS HT HB. destruct seq.
  - exact (flow_sequence_first_entry_stopped p t0 sp tk r HS HT HB).
  - exact (flow_mapping_first_key_stopped p t0 sp tk r HS HT HB).
Qed.

(* R3 — a second root node / a directive without document end marker *)
Definition is_directive_tok (tk : tok) : bool :=
  match tk with TVersionDirective _ _ | TTagDirective _ _ => true | _ => false end.

(* tokens that can only belong to further content of the same document *)
Definition content_tok (tk : tok) : bool :=
  match tk with
  | TDocumentEnd | TDocumentStart | TStreamEnd | TVersionDirective _ _ | TTagDirective _ _ => false
  | _ => true
  end.

Theorem second_root_rejected p sp tk r :
  p_state p = SDocumentEnd -> toks_ahead p = (sp, tk) :: r -> content_tok tk = true ->
  exists sp' p', state_machine p = Parser.Ok ((EDocumentEnd, sp'), p')
                 /\ state_machine p' = Parser.Err (PErr 3 (sp_start sp)).
Proof.
  intros HS HT HC. unfold state_machine at 1. rewrite HS. unfold document_end. pk HT.
  destruct tk; cbn in HC; try discriminate; cbn;
    destruct (p_keep_tags p); cbn; (do 2 eexists; split; [reflexivity|]); cbn; reflexivity.
Qed.

Theorem second_root_run_rejected p sp tk r fuel se acc :
  p_state p = SDocumentEnd -> toks_ahead p = (sp, tk) :: r -> content_tok tk = true ->
  run_end (2 + fuel) p se acc = PParseErr 3 (sp_start sp).
Proof.
  intros HS HT HC. destruct (second_root_rejected p sp tk r HS HT HC) as (sp' & p' & H1 & H2).
  cbn [Nat.add]. erewrite run_ok1; [ | congruence | exact H1 ].
  apply run_err1; [ | exact H2 ].
  intros HE. unfold state_machine in H2. rewrite HE in H2. discriminate.
Qed.

Theorem directive_without_document_end_rejected p sp tk r :
  p_state p = SDocumentEnd -> toks_ahead p = (sp, tk) :: r -> is_directive_tok tk = true ->
  state_machine p = Parser.Err (PErr 4 (sp_start sp)).
Proof.
  intros HS HT HC. unfold state_machine. rewrite HS. unfold document_end. pk HT.
  destruct tk; cbn in HC; try discriminate; cbn; destruct (p_keep_tags p); reflexivity.
Qed.

(* R4 — alias without anchor *)
Theorem alias_without_anchor_rejected p sp n r b i :
  toks_ahead p = (sp, TAlias n) :: r -> assoc n (p_anchors p) = None -> p_states p <> [] ->
  parse_node p b i = Parser.Err (PErr 10 (sp_start sp)).
Proof.
  intros HT HA HN. unfold parse_node. pk HT. unfold pop_state. cbn.
  destruct (p_states p) as [|s stk]; [congruence|]. cbn. rewrite HA. reflexivity.
Qed.

(* at the root of a document, implicit or explicit *)
Theorem root_alias_without_anchor_rejected p sp n r :
  (p_state p = SBlockNode \/ p_state p = SDocumentContent) ->
  toks_ahead p = (sp, TAlias n) :: r -> assoc n (p_anchors p) = None -> p_states p <> [] ->
  state_machine p = Parser.Err (PErr 10 (sp_start sp)).
Proof.
  intros HS HT HA HN. unfold state_machine.
  destruct HS as [HS|HS]; rewrite HS.
  - eapply alias_without_anchor_rejected; eassumption.
  - unfold document_content. rewrite (peek_norm _ _ _ HT). cbn beta iota.
    eapply alias_without_anchor_rejected; cbn; [reflexivity | assumption | assumption].
Qed.

Lemma assoc_nil {B} n : @assoc B n [] = None.
Proof. reflexivity. Qed.

(* An alias right at the start of the next document refers to nothing, whatever was anchored before:
   [document_end] empties the table (DocReset), "--- *n" and "*n" (after "...") both fail with site 10. *)
Theorem alias_to_previous_document_rejected p ev p' :
  document_end p = Parser.Ok (ev, p') ->
  (forall sp0 sp n r, toks_ahead p' = (sp0, TDocumentStart) :: (sp, TAlias n) :: r ->
     exists ev2 p2, state_machine p' = Parser.Ok (ev2, p2) /\ state_machine p2 = Parser.Err (PErr 10 (sp_start sp)))
  /\ (forall sp n r, p_state p' = SImplicitDocumentStart -> toks_ahead p' = (sp, TAlias n) :: r ->
     exists ev2 p2, state_machine p' = Parser.Ok (ev2, p2) /\ state_machine p2 = Parser.Err (PErr 10 (sp_start sp))).
Proof.
  intros HD. destruct (document_end_resets _ _ _ HD) as [(HA & _) HS].
  split.
  - intros sp0 sp n r HT.
    assert (G : forall impl, exists ev2 p2, document_start p' impl = Parser.Ok (ev2, p2)
                                       /\ state_machine p2 = Parser.Err (PErr 10 (sp_start sp))).
    { intros impl. unfold document_start. cbn [skip_document_ends]. pk HT.
      unfold explicit_document_start. cbn. do 2 eexists. split; [reflexivity|].
      cbn. rewrite HA. reflexivity. }
    unfold state_machine at 1. destruct HS as [HS|HS]; rewrite HS; apply G.
  - intros sp n r HS' HT. unfold state_machine at 1. rewrite HS'.
    unfold document_start. cbn [skip_document_ends]. pk HT.
    do 2 eexists. split; [reflexivity|]. cbn. rewrite HA. reflexivity.
Qed.

(* R5 — named tag handle that was never declared *)
Theorem undeclared_handle_rejected p m h s :
  is_named_handle h = true -> h <> [bang; bang] -> assoc h (p_tags p) = None ->
  resolve_tag p m h s = Parser.Err (PErr 20 m).
Proof.
  intros HN HB HA. unfold resolve_tag.
  assert (E : str_eqb h [bang; bang] = false).
  { unfold str_eqb. destruct (list_eq_dec N.eq_dec h [bang; bang]); [contradiction|reflexivity]. }
  rewrite E. destruct h as [|a h']; [discriminate|]. cbn [andb]. rewrite HA, HN. reflexivity.
Qed.

Theorem node_with_undeclared_handle_rejected p sp h s r b i :
  toks_ahead p = (sp, TTag h s) :: r ->
  is_named_handle h = true -> h <> [bang; bang] -> assoc h (p_tags p) = None ->
  parse_node p b i = Parser.Err (PErr 20 (sp_start sp)).
Proof.
  intros HT HN HB HA. unfold parse_node. pk HT.
  rewrite undeclared_handle_rejected; [reflexivity | assumption | assumption | cbn; assumption].
Qed.

Theorem anchored_node_with_undeclared_handle_rejected p sp0 a sp h s r b i :
  toks_ahead p = (sp0, TAnchor a) :: (sp, TTag h s) :: r ->
  is_named_handle h = true -> h <> [bang; bang] -> assoc h (p_tags p) = None ->
  parse_node p b i = Parser.Err (PErr 20 (sp_start sp0)).
Proof.
  intros HT HN HB HA. unfold parse_node. pk HT.
  rewrite undeclared_handle_rejected; [reflexivity | assumption | assumption | cbn; assumption].
Qed.

(* R6 — repeated %YAML directive *)
Theorem version_after_version_rejected fuel p sp a b r tags :
  toks_ahead p = (sp, TVersionDirective a b) :: r ->
  process_directives (S fuel) p true tags = Parser.Err (PErr 2 (sp_start sp)).
Proof. intros HT. cbn [process_directives]. pk HT. reflexivity. Qed.

Theorem repeated_version_directive_rejected fuel p sp1 a b sp2 c d r tags :
  toks_ahead p = (sp1, TVersionDirective a b) :: (sp2, TVersionDirective c d) :: r ->
  process_directives (S (S fuel)) p false tags = Parser.Err (PErr 2 (sp_start sp2)).
Proof. intros HT. cbn [process_directives]. pk HT. reflexivity. Qed.

(* ... also with %TAG directives between the two (or the error is the duplicate-handle one, site 21) *)
Lemma skip_ahead p t r : toks_ahead p = t :: r -> toks_ahead (skip (set_tok p r (Some t))) = r.
Proof. reflexivity. Qed.

Theorem version_seen_then_version_rejected ds : forall fuel p tags sp a b r,
  Forall (fun t => match snd t with TTagDirective _ _ => True | _ => False end) ds ->
  toks_ahead p = ds ++ (sp, TVersionDirective a b) :: r -> (length ds < fuel)%nat ->
  match process_directives fuel p true tags with
  | Parser.Err (PErr s m) => (s = 2%N /\ m = sp_start sp) \/ s = 21%N
  | _ => False
  end.
Proof.
  induction ds as [|[spd d] ds IH]; intros fuel p tags sp a b r HF HT HL.
  - destruct fuel as [|fuel]; [cbn in HL; lia|]. cbn [app] in HT.
    rewrite (version_after_version_rejected fuel p sp a b r tags HT). left; split; reflexivity.
  - destruct fuel as [|fuel]; [cbn in HL; lia|]. cbn [app] in HT.
    inversion HF as [|x l Hd HF']; subst. cbn [snd] in Hd. destruct d; try contradiction.
    cbn [process_directives]. rewrite (peek_norm _ _ _ HT). cbn beta iota.
    destruct (negb (is_empty_str h) && has_key h tags); [right; reflexivity|].
    eapply IH; [exact HF' | reflexivity | cbn in HL; lia].
Qed.

Lemma toks_ahead_length p : (length (toks_ahead p) < S (S (length (p_toks p))))%nat.
Proof. unfold toks_ahead. destruct (p_token p); cbn; lia. Qed.

(* at the state-machine level: a stream/document start that meets "%YAML .. %YAML .." *)
Theorem document_with_two_versions_rejected p sp1 a b sp2 c d r :
  (p_state p = SImplicitDocumentStart \/ p_state p = SDocumentStart) ->
  toks_ahead p = (sp1, TVersionDirective a b) :: (sp2, TVersionDirective c d) :: r ->
  state_machine p = Parser.Err (PErr 2 (sp_start sp2)).
Proof.
  intros HS HT. unfold state_machine.
  assert (G : forall impl, document_start p impl = Parser.Err (PErr 2 (sp_start sp2))).
  { intros impl. unfold document_start. cbn [skip_document_ends]. pk HT.
    unfold explicit_document_start. cbn. reflexivity. }
  destruct HS as [HS|HS]; rewrite HS; apply G.
Qed.

(* R7 — directives that are not followed by '---' *)
Lemma process_directives_run ds : forall fuel p vs tags t r,
  Forall (fun t => is_directive_tok (snd t) = true) ds -> is_directive_tok (snd t) = false ->
  toks_ahead p = ds ++ t :: r -> (length ds < fuel)%nat ->
  match process_directives fuel p vs tags with
  | Parser.Ok q => toks_ahead q = t :: r
  | Parser.Err (PErr s _) => s = 2%N \/ s = 21%N
  | _ => False
  end.
Proof.
  induction ds as [|[spd d] ds IH]; intros fuel p vs tags t r HF Ht HT HL.
  - destruct fuel as [|fuel]; [cbn in HL; lia|]. cbn [app] in HT.
    cbn [process_directives]. rewrite (peek_norm _ _ _ HT). destruct t as [sp tk]. cbn [snd] in Ht.
    destruct tk; cbn in Ht; try discriminate; reflexivity.
  - destruct fuel as [|fuel]; [cbn in HL; lia|]. cbn [app] in HT.
    inversion HF as [|x l Hd HF']; subst. cbn [snd] in Hd.
    cbn [process_directives]. rewrite (peek_norm _ _ _ HT).
    destruct d; cbn in Hd; try discriminate; cbn beta iota.
    + destruct vs; [left; reflexivity|]. eapply IH; [exact HF' | exact Ht | reflexivity | cbn in HL; lia].
    + destruct (negb (is_empty_str h) && has_key h tags); [right; reflexivity|].
      eapply IH; [exact HF' | exact Ht | reflexivity | cbn in HL; lia].
Qed.

Theorem directives_without_document_start_rejected p ds sp tk r :
  Forall (fun t => is_directive_tok (snd t) = true) ds ->
  is_directive_tok tk = false -> tk <> TDocumentStart ->
  toks_ahead p = ds ++ (sp, tk) :: r ->
  match explicit_document_start p with
  | Parser.Err (PErr s m) => (s = 3%N /\ m = sp_start sp)   (* did not find expected <document start> *)
                             \/ s = 2%N \/ s = 21%N         (* or a directive of the run is itself in error *)
  | _ => False
  end.
Proof.
  intros HF Hd Hn HT. unfold explicit_document_start.
  assert (HL : (length ds < S (S (length (p_toks p))))%nat).
  { pose proof (toks_ahead_length p) as H. rewrite HT, app_length in H. cbn in H. lia. }
  pose proof (process_directives_run ds _ p false [] (sp, tk) r HF Hd HT HL) as HP.
  destruct (process_directives _ p false []) as [q|e|n]; [| |contradiction].
  - rewrite (peek_norm _ _ _ HP). destruct tk; try (left; split; reflexivity). congruence.
  - destruct e as [|s m]; [contradiction|]. right. exact HP.
Qed.

(* in particular: directives and then the end of the stream *)
Corollary directives_at_end_of_stream_rejected p ds sp r :
  Forall (fun t => is_directive_tok (snd t) = true) ds ->
  toks_ahead p = ds ++ (sp, TStreamEnd) :: r ->
  match explicit_document_start p with
  | Parser.Err (PErr s m) => (s = 3%N /\ m = sp_start sp) \/ s = 2%N \/ s = 21%N
  | _ => False
  end.
Proof. intros HF HT. apply (directives_without_document_start_rejected p ds sp TStreamEnd r); auto. discriminate. Qed.

(* and the state machine does call [explicit_document_start] when a document starts with a directive *)
Theorem document_start_with_directive p sp tk r impl :
  is_directive_tok tk = true -> toks_ahead p = (sp, tk) :: r ->
  exists q, toks_ahead q = (sp, tk) :: r /\ document_start p impl = explicit_document_start q.
Proof.
  intros Hd HT. exists (set_tok p r (Some (sp, tk))). split; [reflexivity|].
  rewrite document_start_if. cbn [skip_document_ends]. rewrite (peek_norm _ _ _ HT).
  destruct tk; try discriminate Hd; cbn beta iota; peek_next; cbn [tis tin existsb directive_kinds];
    rewrite orb_true_r; reflexivity.
Qed.

(* The bracket discipline of a token stream up to StreamEnd: every flow closer matches the innermost *)
(* open flow collection, none is open at StreamEnd.  (Proved below for every accepted stream.) *)
Fixpoint flow_balanced (l : list token) (stk : list bool) : bool :=
  match l with
  | [] => false                                   (* no StreamEnd at all *)
  | (_, t) :: r =>
      match t with
      | TStreamEnd => match stk with [] => true | _ => false end
      | TFlowSequenceStart => flow_balanced r (true :: stk)
      | TFlowMappingStart => flow_balanced r (false :: stk)
      | TFlowSequenceEnd => match stk with true :: s => flow_balanced r s | _ => false end
      | TFlowMappingEnd => match stk with false :: s => flow_balanced r s | _ => false end
      | _ => flow_balanced r stk
      end
  end.

Definition accepted_implies_balanced : Prop :=
  forall toks keep se fuel, snd (parse_all fuel (init_parser toks keep) se []) = PDone -> flow_balanced toks [] = true.

Definition sp0 : span := span_empty {| m_index := 0; m_line := 0; m_col := 0 |}.

(* Scanner layer, over the character-level StrInput instance [str_ops] *)
Open Scope N_scope.

(* ---- S1: escapes in double-quoted scalars.  [resolve_escape] is entered with the backslash at offset 0
        and the escape character at offset 1 of the remaining input ---- *)
Notation chars_of s := (si_chars (sc_in s)).

Lemma assocc_none e l : ~ In e (map fst l) -> assocc e l = None.
Proof.
  induction l as [|[a b] l IH]; intros H; [reflexivity|]. cbn [assocc].
  destruct (N.eqb_spec a e) as [->|Hne]; [exfalso; apply H; left; reflexivity|].
  apply IH. intros Hin. apply H. right. exact Hin.
Qed.

Lemma code_length_other e : ~ In e (map fst code_length_table) -> code_length e = 0%nat.
Proof.
  unfold code_length. induction code_length_table as [|[a b] l IH]; intros H; [reflexivity|]. cbn [assocn].
  destruct (N.eqb_spec a e) as [->|Hne]; [exfalso; apply H; left; reflexivity|].
  apply IH. intros Hin. apply H. right. exact Hin.
Qed.

(* every code point that is neither a single-character escape of the generated table nor x/u/U: "unknown escape character" *)
Theorem unknown_escape_rejected start (s : sc strin) :
  let e := nth 1 (chars_of s) 0 in
  ~ In e (map fst escape_table) -> ~ In e (map fst code_length_table) ->
  resolve_escape str_ops start s = Err 31 start.
Proof.
  intros e H1 H2. unfold resolve_escape, bind, peekn. cbn [peek_nth str_ops]. unfold chr in *.
  fold e. rewrite (assocc_none _ _ H1), (code_length_other _ H2). reflexivity.
Qed.

Lemma read_hex_bad n : forall i acc start (s : sc strin),
  (exists j, (j < n)%nat /\ is_hex (nth (i + j) (chars_of s) 0) = false) ->
  read_hex str_ops n i acc start s = Err 30 start.
Proof.
  induction n as [|n IH]; intros i acc start s [j [Hj Hh]]; [lia|].
  cbn [read_hex]. unfold bind, peekn. cbn [peek_nth str_ops]. unfold chr in *.
  match goal with |- context [if ?b then _ else _] => destruct b eqn:E end; [|reflexivity].
  apply IH. destruct j as [|j]; [rewrite Nat.add_0_r in Hh; congruence|].
  exists j. split; [lia|]. replace (S i + j)%nat with (i + S j)%nat by lia. exact Hh.
Qed.

Definition hex_number (ds : list chr) : N := fold_left (fun a c => a * 16 + as_hex c) ds 0.

Lemma skipn_cons_nth {A} i : forall (l : list A) c rest d, skipn i l = c :: rest -> nth i l d = c /\ skipn (S i) l = rest.
Proof.
  induction i as [|i IH]; intros l c rest d H.
  - cbn in H. subst l. split; reflexivity.
  - destruct l as [|x l]; [discriminate|]. cbn [skipn] in H. destruct (IH l c rest d H) as [HA HB].
    split; [exact HA|]. exact HB.
Qed.

Lemma read_hex_ok n : forall i acc start (s : sc strin),
  (n <= length (skipn i (chars_of s)))%nat -> forallb is_hex (firstn n (skipn i (chars_of s))) = true ->
  read_hex str_ops n i acc start s
  = Ok (fold_left (fun a c => a * 16 + as_hex c) (firstn n (skipn i (chars_of s))) acc, s).
Proof.
  induction n as [|n IH]; intros i acc start s HL HH; [reflexivity|].
  destruct (skipn i (chars_of s)) as [|c rest] eqn:E; [cbn in HL; lia|].
  destruct (skipn_cons_nth i _ _ _ 0 E) as [Hn Hs].
  cbn [firstn forallb] in HH. apply andb_prop in HH. destruct HH as [Hc Hr].
  cbn [read_hex]. unfold bind, peekn. cbn [peek_nth str_ops]. unfold chr in *. rewrite Hn, Hc.
  rewrite IH; rewrite Hs; [reflexivity | cbn in HL; lia | exact Hr].
Qed.

(* state after [skip_n_non_blank 2 ;;; look n]: only the first two characters are gone *)
Lemma after_escape_prefix (s : sc strin) n :
  exists s', (bind (skip_n_non_blank str_ops 2) (fun _ => look str_ops n)) s = Ok (tt, s')
             /\ chars_of s' = skipn 2 (chars_of s).
Proof. eexists. split; reflexivity. Qed.

Lemma code_length_in e n : In (e, n) code_length_table -> NoDup (map fst code_length_table) -> code_length e = n.
Proof.
  unfold code_length. induction code_length_table as [|[a b] l IH]; intros H ND; [contradiction|].
  cbn [assocn]. inversion ND as [|x l' Hx ND']; subst. destruct H as [H|H].
  - inversion H; subst. rewrite N.eqb_refl. reflexivity.
  - destruct (N.eqb_spec a e) as [->|Hne]; [exfalso; apply Hx; change e with (fst (e, n)); apply in_map; exact H|].
    apply IH; assumption.
Qed.

Lemma code_length_table_nodup : NoDup (map fst code_length_table).
Proof. repeat constructor; cbn; intuition discriminate. Qed.

Lemma code_length_table_disjoint e n : In (e, n) code_length_table -> assocc e escape_table = None /\ n <> 0%nat.
Proof. cbn. intros [H|[H|[H|[]]]]; inversion H; subst; split; (reflexivity || discriminate). Qed.

(* \x, \u, \U followed by fewer hex digits than required (a non-hex character or the end of input among them) *)
Theorem hex_escape_bad_digit_rejected start (s : sc strin) n :
  In (nth 1 (chars_of s) 0, n) code_length_table ->
  (exists j, (j < n)%nat /\ is_hex (nth (2 + j) (chars_of s) 0) = false) ->
  resolve_escape str_ops start s = Err 30 start.
Proof.
  intros Hin [j [Hj Hh]].
  destruct (code_length_table_disjoint _ _ Hin) as [Ha Hn].
  pose proof (code_length_in _ _ Hin code_length_table_nodup) as Hc.
  unfold resolve_escape. unfold bind at 1. unfold peekn at 1. cbn [peek_nth str_ops]. unfold chr in *.
  rewrite Ha, Hc. destruct (Nat.eqb_spec n 0); [contradiction|].
  destruct (after_escape_prefix s n) as (s' & Hs' & Hch).
  change (bind (skip_n_non_blank str_ops 2) (fun _ => bind (look str_ops n) ?k) s)
    with (bind (bind (skip_n_non_blank str_ops 2) (fun _ => look str_ops n)) k s) at 1.
  unfold bind at 1. rewrite Hs'. unfold bind at 1.
  rewrite read_hex_bad; [reflexivity|]. exists j. split; [exact Hj|]. rewrite Hch, nth_skipn. exact Hh.
Qed.

(* \x, \u, \U with all required hex digits whose value is not a Unicode scalar value (a surrogate, or above 10FFFF) *)
Theorem hex_escape_non_scalar_rejected start (s : sc strin) n :
  In (nth 1 (chars_of s) 0, n) code_length_table ->
  let ds := firstn n (skipn 2 (chars_of s)) in
  length ds = n -> forallb is_hex ds = true -> is_scalar_value (hex_number ds) = false ->
  resolve_escape str_ops start s = Err 32 start.
Proof.
  intros Hin ds HL HH HV.
  destruct (code_length_table_disjoint _ _ Hin) as [Ha Hn].
  pose proof (code_length_in _ _ Hin code_length_table_nodup) as Hc.
  unfold resolve_escape. unfold bind at 1. unfold peekn at 1. cbn [peek_nth str_ops]. unfold chr in *.
  rewrite Ha, Hc. destruct (Nat.eqb_spec n 0); [contradiction|].
  destruct (after_escape_prefix s n) as (s' & Hs' & Hch).
  change (bind (skip_n_non_blank str_ops 2) (fun _ => bind (look str_ops n) ?k) s)
    with (bind (bind (skip_n_non_blank str_ops 2) (fun _ => look str_ops n)) k s) at 1.
  unfold bind at 1. rewrite Hs'. unfold bind at 1.
  rewrite read_hex_ok.
  - cbn [skipn]. rewrite Hch. match goal with |- context [if ?b then _ else _] => replace b with false by (symmetry; exact HV) end. reflexivity.
  - cbn [skipn]. rewrite Hch. subst ds. rewrite firstn_length in HL. unfold chr in *. lia.
  - cbn [skipn]. rewrite Hch. exact HH.
Qed.

(* the three classes together: what [resolve_escape] accepts is exactly a table escape or a well-formed hex escape of a
   scalar value -- stated as: it never returns Ok in any of the three ill-formed situations *)

(* ---- S2: simple keys go stale (scanner.rs stale_simple_keys).  The model's guarantee, precisely:
        a candidate key is STALE when it is possible, the scanner is in block context (flow level 0), and either it began
        on an earlier line or more than SIMPLE_KEY_MAX characters ago.  If a stale candidate is REQUIRED (it sits at the
        indentation of the enclosing block mapping) the scan fails (site 44: "simple key expected ':'"); otherwise every
        stale candidate is invalidated and all others are left alone.  (In flow context [stale_simple_keys] never
        invalidates; since /repo 57aa316 the 1024 limit of a flow-sequence pair key is enforced in fetch_value, see
        Proofs/RejectScan.v [long_flow_pair_key_rejected]; keys of flow MAPPINGS are unlimited, YAML 1.2.2 [147].) ---- *)
Definition stale_key (s : sc strin) (k : simple_key) : bool :=
  sk_possible k && (sc_flow_level s =? 0)
  && ((m_line (sk_mark k) <? m_line (sc_mark s)) || (m_index (sk_mark k) + SIMPLE_KEY_MAX <? m_index (sc_mark s))).

Theorem stale_required_key_rejected (s : sc strin) :
  (exists k, In k (sc_sks s) /\ stale_key s k = true /\ sk_required k = true) ->
  stale_simple_keys s = Err 44 (sc_mark s).
Proof.
  intros [k [Hin [Hs Hr]]]. unfold stale_simple_keys, bind, get.
  assert (E : existsb (fun k => stale_key s k && sk_required k) (sc_sks s) = true).
  { apply existsb_exists. exists k. split; [exact Hin|]. rewrite Hs, Hr. reflexivity. }
  unfold stale_key in E. rewrite E. reflexivity.
Qed.

Theorem stale_keys_invalidated (s : sc strin) :
  (forall k, In k (sc_sks s) -> stale_key s k = true -> sk_required k = false) ->
  exists s', stale_simple_keys s = Ok (tt, s')
    /\ sc_mark s' = sc_mark s /\ sc_tokens s' = sc_tokens s /\ sc_flow_level s' = sc_flow_level s
    /\ length (sc_sks s') = length (sc_sks s)
    /\ forall i k, nth_error (sc_sks s) i = Some k ->
         exists k', nth_error (sc_sks s') i = Some k'
           /\ (stale_key s k = true -> sk_possible k' = false)
           /\ (stale_key s k = false -> k' = k).
Proof.
  intros H. unfold stale_simple_keys, bind, get.
  assert (E : existsb (fun k => stale_key s k && sk_required k) (sc_sks s) = false).
  { apply not_true_is_false. intros HE. apply existsb_exists in HE. destruct HE as [k [Hin Hk]].
    apply andb_prop in Hk. destruct Hk as [Hs Hr]. rewrite (H k Hin Hs) in Hr. discriminate. }
  unfold stale_key in E. rewrite E. eexists. split; [reflexivity|]. cbn.
  repeat split; try reflexivity.
  - apply map_length.
  - intros i k Hi. rewrite nth_error_map, Hi. cbn. eexists. split; [reflexivity|].
    fold (stale_key s k). destruct (stale_key s k); split; intros; try discriminate; reflexivity.
Qed.

(* the concrete limit: a possible key that started more than 1024 characters before the current position is stale *)
Theorem key_longer_than_limit_is_stale (s : sc strin) k :
  sk_possible k = true -> sc_flow_level s = 0 -> m_index (sk_mark k) + 1024 < m_index (sc_mark s) ->
  stale_key s k = true.
Proof.
  intros Hp Hf Hl. unfold stale_key. rewrite Hp, Hf. cbn [andb]. change SIMPLE_KEY_MAX with 1024.
  apply N.ltb_lt in Hl. rewrite Hl. apply orb_true_r.
Qed.

Theorem key_on_earlier_line_is_stale (s : sc strin) k :
  sk_possible k = true -> sc_flow_level s = 0 -> m_line (sk_mark k) < m_line (sc_mark s) ->
  stale_key s k = true.
Proof.
  intros Hp Hf Hl. unfold stale_key. rewrite Hp, Hf. cbn [andb].
  apply N.ltb_lt in Hl. rewrite Hl. reflexivity.
Qed.

(* S3: flow nesting limit *)
Theorem flow_level_limit_rejected (s : sc strin) :
  sc_flow_level s = FLOW_LEVEL_MAX -> increase_flow_level s = Err 45 (sc_mark s).
Proof. intros H. unfold increase_flow_level, bind, get. rewrite H, N.eqb_refl. reflexivity. Qed.

Theorem flow_level_below_limit_increases (s : sc strin) :
  sc_flow_level s <> FLOW_LEVEL_MAX ->
  exists s', increase_flow_level s = Ok (tt, s') /\ sc_flow_level s' = sc_flow_level s + 1.
Proof.
  intros H. unfold increase_flow_level, bind, get. apply N.eqb_neq in H. rewrite H.
  eexists. split; reflexivity.
Qed.

(* what invalidation leads to: when the ':' of "key: value" is reached in block context and the candidate key is no
   longer possible (e.g. invalidated by [stale_simple_keys] because it is longer than 1024 characters or spans lines),
   and no new key may start here (simple_key_allowed = false, as after any scalar on the same line), the scan fails
   with site 99 ("mapping values are not allowed in this context") *)
Theorem value_after_invalidated_key_rejected F (s : sc strin) k r :
  sc_sks s = k :: r -> sk_possible k = false -> sc_flow_level s = 0 -> sc_ifms s = [] -> sc_ska s = false ->
  nth 0 (tl (chars_of s)) 0 <> 9 ->
  fetch_value str_ops F s = Err 99 (sc_mark s).
Proof.
  intros Hk Hp Hf Hi Ha Hc. unfold fetch_value.
  unfold bind at 1. unfold get at 1. rewrite Hk. unfold bind at 1. unfold ret at 1.
  rewrite Hi, Hf. change (0 =? 0) with true. cbn [orb andb]. cbv iota. unfold bind at 1. unfold ret at 1.
  unfold bind at 1. unfold skip_non_blank, in_skip, adv_mark, modify, bind at 1. cbn.
  apply N.eqb_neq in Hc. unfold chr in *. rewrite Hc. cbn. rewrite Hp. cbn. rewrite Hf, Ha. reflexivity.
Qed.

(* The full property as a closed statement: a (small) renderer of well-formed one-line flow documents  *)
(* composed with damage operators.  Stated, not proved -- and refuted, see Properties/C06.v. *)
Inductive wf_flow :=
| WWord (w : list N)                      (* plain scalar of lower-case letters *)
| WQuoted (w : list N)                    (* 'letters' *)
| WEmptyKey                               (* "? " : explicit key with empty key and value; a sequence entry only *)
| WSeq (l : list wf_flow)
| WMap (l : list (list N * wf_flow)).

Definition lower_word (w : list N) : Prop := w <> [] /\ Forall (fun c => 97 <= c /\ c <= 122) w.

Inductive wf_ok : bool -> wf_flow -> Prop :=     (* the flag: directly inside a flow sequence *)
| OkWord b w : lower_word w -> wf_ok b (WWord w)
| OkQuoted b w : lower_word w -> wf_ok b (WQuoted w)
| OkEmptyKey : wf_ok true WEmptyKey
| OkSeq b l : Forall (wf_ok true) l -> wf_ok b (WSeq l)
| OkMap b l : Forall (fun kv => lower_word (fst kv) /\ wf_ok false (snd kv)) l -> wf_ok b (WMap l).

Fixpoint join_with (sep : list N) (l : list (list N)) : list N :=
  match l with
  | [] => []
  | [x] => x
  | x :: r => x ++ sep ++ join_with sep r
  end.

Fixpoint render_flow (f : wf_flow) : list N :=
  match f with
  | WWord w => w
  | WQuoted w => [39] ++ w ++ [39]
  | WEmptyKey => [63; 32]
  | WSeq l => [91] ++ join_with [44; 32] (map render_flow l) ++ [93]
  | WMap l => [123] ++ join_with [44; 32] (map (fun kv => fst kv ++ [58; 32] ++ render_flow (snd kv)) l) ++ [125]
  end.

Definition is_collection (f : wf_flow) : bool := match f with WSeq _ | WMap _ => true | _ => false end.
Definition not_plain (f : wf_flow) : bool := match f with WWord _ | WEmptyKey => false | _ => true end.
Definition other_closer (c : N) : N := if c =? 93 then 125 else 93.

(* damaged texts, each ill-formed by construction: the root node is a complete one-line flow node at column 0 *)
Inductive damaged : list N -> Prop :=
| DStrayCloser f c : wf_ok false f -> is_collection f = true -> (c = 93 \/ c = 125) ->
    damaged (render_flow f ++ [32; c; 10])                                   (* "[a, b] ]"          *)
| DDropCloser f : wf_ok false f -> is_collection f = true ->
    damaged (removelast (render_flow f) ++ [10])                             (* "[a, b"             *)
| DSwapCloser f : wf_ok false f -> is_collection f = true ->
    damaged (removelast (render_flow f) ++ [other_closer (last (render_flow f) 0); 10])   (* "[a, b}" *)
| DSecondRoot f g : wf_ok false f -> wf_ok false g -> not_plain f = true ->
    damaged (render_flow f ++ [10] ++ render_flow g ++ [10]).                (* "[a]" NL "b"       *)

(* The damage class of known_findings_c06.jsonl that was repaired by /repo 57aa316 (the implicit key of a flow-sequence pair is
   limited to 1024 characters like any other implicit key, YAML 1.2.2 [154]/[155]); its whole family is PROVED rejected in
   Proofs/RejectScan.v ([long_flow_pair_key_family_rejected]) *)
Inductive damaged_long_key : list N -> Prop :=
| DLongFlowPairKey k v : lower_word k -> lower_word v -> (1024 < length k)%nat ->
    damaged_long_key ([91; 32] ++ k ++ [58; 32] ++ v ++ [32; 93; 10]).      (* "[ kkkk...k: v ]", key > 1024 chars *)

(* The damage class of known_findings_c06.jsonl that the model (like the code) still ACCEPTS, as an operator of the same
   kind: ill-formed by construction for every choice of the words. *)
Inductive damaged_known : list N -> Prop :=
| DFlowContinuationAtBlockIndent k a b : lower_word k -> lower_word a -> lower_word b ->
    damaged_known (k ++ [58; 32; 91] ++ a ++ [44; 10; 39] ++ b ++ [39; 93; 10]).   (* "k: [a," NL "'b']" *)

(* the bracket / second-root fragment: neither proved nor refuted (needs the scanner half for all rendered trees) *)
Definition C06_full_flow_fragment : Prop := forall s, damaged s -> snd (run_str s) <> PDone.
(* all six operators *)
Definition C06_full_damaged : Prop :=
  forall s, damaged s \/ damaged_long_key s \/ damaged_known s -> snd (run_str s) <> PDone.

Lemma lower_word_repeat c n : 97 <= c -> c <= 122 -> (0 < n)%nat -> lower_word (repeat c n).
Proof.
  intros A B Hn. split.
  - destruct n; [inversion Hn | discriminate].
  - apply Forall_forall. intros x Hx. apply repeat_spec in Hx. subst x. split; assumption.
Qed.

(* refuted by the one remaining class, and by nothing else that is known *)
Lemma C06_full_damaged_refuted : ~ C06_full_damaged.
Proof.
  intros H.
  assert (D : damaged_known ([107] ++ [58; 32; 91] ++ [97] ++ [44; 10; 39] ++ [98] ++ [39; 93; 10])).
  { apply DFlowContinuationAtBlockIndent; (split; [discriminate | repeat constructor; cbv; discriminate]). }
  apply (H _ (or_intror (or_intror D))). vm_compute. reflexivity.
Qed.

(* the repaired class is inhabited: the recorded witness "[ k^1025: v ]" *)
Lemma long_flow_pair_key_damaged : damaged_long_key ([91; 32] ++ repeat 107 1025 ++ [58; 32] ++ [118] ++ [32; 93; 10]).
Proof.
  apply DLongFlowPairKey.
  - apply lower_word_repeat; [cbv; discriminate | cbv; discriminate | apply Nat.ltb_lt; vm_compute; reflexivity].
  - split; [discriminate | repeat constructor; cbv; discriminate].
  - rewrite repeat_length. apply Nat.ltb_lt. vm_compute. reflexivity.
Qed.

(* R1 + R2, globally: every ACCEPTED token stream obeys the bracket discipline.  A second invariant *)
(* (next to C02's [Inv]) carried through all 21 parser states: [Good p] says that the tokens still *)
(* ahead close exactly the flow collections the state and the state stack have open.  Each step is *)
(* shown to preserve it BACKWARDS (goodness of the successor implies goodness of [p]); a run that ends *)
(* in PDone ends in a good state, hence the initial state is good, i.e. the whole stream is balanced. *)
Close Scope N_scope.

Definition frames_of (s : pstate) : list bool :=
  match s with
  | SFlowSequenceEntry | SFlowSequenceEntryMappingKey | SFlowSequenceEntryMappingValue | SFlowSequenceEntryMappingEnd _ => [true]
  | SFlowMappingKey | SFlowMappingValue | SFlowMappingEmptyValue => [false]
  | _ => []
  end.
Definition stack_open (l : list pstate) : list bool := flat_map frames_of l.

Definition Good (p : parser) : Prop :=
  match p_state p with
  | SEnd => True
  | st => flow_balanced (toks_ahead p) (frames_of st ++ stack_open (p_states p)) = true
  end.

Lemma peek_nil p : toks_ahead p = [] -> Parser.peek p = Parser.Err PErrScan.
Proof.
  unfold toks_ahead, Parser.peek. destruct (p_token p); [discriminate|]. intros ->. reflexivity.
Qed.

(* tokens without influence on the bracket discipline *)
Definition neutral (tk : tok) : bool :=
  match tk with
  | TStreamEnd | TFlowSequenceStart | TFlowMappingStart | TFlowSequenceEnd | TFlowMappingEnd => false
  | _ => true
  end.
Lemma flow_balanced_neutral sp tk r X : neutral tk = true -> flow_balanced ((sp, tk) :: r) X = flow_balanced r X.
Proof. destruct tk; cbn; try discriminate; reflexivity. Qed.

Definition goodS (st : pstate) (toks : list token) (stk : list pstate) : Prop :=
  match st with
  | SEnd => True
  | _ => flow_balanced toks (frames_of st ++ stack_open stk) = true
  end.
Lemma Good_goodS p : Good p = goodS (p_state p) (toks_ahead p) (p_states p).
Proof. unfold Good, goodS. destruct (p_state p); reflexivity. Qed.

Definition first_ok (p : parser) : Prop :=
  match p_state p with
  | SFlowSequenceFirstEntry => exists sp r, toks_ahead p = (sp, TFlowSequenceStart) :: r
  | SFlowMappingFirstKey => exists sp r, toks_ahead p = (sp, TFlowMappingStart) :: r
  | SBlockSequenceFirstEntry => exists sp r, toks_ahead p = (sp, TBlockSequenceStart) :: r
  | SBlockMappingFirstKey => exists sp r, toks_ahead p = (sp, TBlockMappingStart) :: r
  | _ => True
  end.

(* what a step owes: the result keeps [first_ok], and goodness of the result implies the given bracket fact about [p] *)
Definition bpost (P : Prop) (r : res ((event * span) * parser)) : Prop :=
  match r with
  | Parser.Ok (_, p') => first_ok p' /\ (Good p' -> P)
  | _ => True
  end.

Lemma Rooted_head s r : Rooted (s :: r) -> s <> SEnd.
Proof.
  intros H. inversion H as [|s' r' Hc Hr]; subst; [discriminate|].
  destruct s; try discriminate.
Qed.

Lemma goodS_plain s toks stk : s <> SEnd ->
  goodS s toks stk = (flow_balanced toks (frames_of s ++ stack_open stk) = true).
Proof. intros A. destruct s; try reflexivity; congruence. Qed.

#[local] Arguments pop_state : simpl never.

(* a leaf: the continuation is popped; [k] (skip or identity) does not look at state and stack *)
Lemma bpost_pop (P : Prop) q e sp (k : parser -> parser) :
  Rooted (p_states q) ->
  (forall x, p_state (k x) = p_state x /\ p_states (k x) = p_states x) ->
  (forall s r, toks_ahead (k (set_state (set_states q r) s)) = toks_ahead (k q)) ->
  (flow_balanced (toks_ahead (k q)) (stack_open (p_states q)) = true -> P) ->
  bpost P (do x <- pop_state q; Parser.Ok ((e, sp), k x)).
Proof.
  intros HR Hk Ht HP.
  destruct (pop_state_spec q HR) as (s & r & F' & Hst & Hpop & _ & _).
  rewrite Hpop. cbn [bpost].
  destruct (Hk (set_state (set_states q r) s)) as [Hs Hss]. cbn in Hs, Hss.
  assert (HH : Rooted (s :: r)) by (rewrite <- Hst; exact HR).
  pose proof (Rooted_head _ _ HH) as N1.
  split.
  - unfold first_ok. rewrite Hs. inversion HH as [|s' r' Hc Hr]; subst; [exact I|]. destruct s; try discriminate; exact I.
  - rewrite Good_goodS, Hs, Hss, (goodS_plain _ _ _ N1), Ht. intros H. apply HP.
    rewrite Hst. exact H.
Qed.

Ltac bfin HT HR :=
  first
  [ exact I
  | (apply bpost_pop; [ cbn; exact HR | intros; split; reflexivity | intros; reflexivity
                      | cbn; rewrite ?HT; cbn; (let HH := fresh "HH" in intro HH; exact HH) ])
  | (cbn [bpost]; split; [ cbn; first [exact I | (do 2 eexists; reflexivity)]
                         | unfold Good; cbn; rewrite ?HT; cbn; (let HH := fresh "HH" in intro HH; exact HH) ]) ].

Lemma node_content_bal p aid tg b i :
  Rooted (p_states p) ->
  bpost (flow_balanced (toks_ahead p) (stack_open (p_states p)) = true) (node_content p aid tg b i).
Proof.
  intros HR. unfold node_content.
  destruct (toks_ahead p) as [|[sp tk] r] eqn:HT; [rewrite (peek_nil _ HT); exact I|].
  rewrite (peek_norm _ _ _ HT). cbn beta iota.
  destruct tk; try destruct i; try destruct b; unfold empty_or_err; try destruct (has_props aid tg); bfin HT HR.
Qed.

Lemma node_props_toks q sp tk :
  p_token q = Some (sp, tk) ->
  match node_props q (sp, tk) with
  | Parser.Ok (_, _, q') => p_states q' = p_states q /\ (forall X, flow_balanced (toks_ahead q') X = flow_balanced (toks_ahead q) X)
  | _ => True
  end.
Proof.
  intros HC. unfold node_props.
  destruct tk; try (split; [reflexivity | intros; reflexivity]).
  - (* anchor *)
    cbn [register_anchor]. unfold Parser.peek. cbn.
    destruct (p_toks q) as [|[sp2 tk2] r2] eqn:HQ; [exact I|]. cbn.
    destruct tk2; try (split; [reflexivity | intros X; unfold toks_ahead; cbn; rewrite HC, HQ; reflexivity]).
    destruct (resolve_tag _ _ _ _); try exact I.
    split; [reflexivity | intros X; unfold toks_ahead; cbn; rewrite HC, HQ; reflexivity].
  - (* tag *)
    destruct (resolve_tag _ _ _ _); try exact I.
    unfold Parser.peek. cbn.
    destruct (p_toks q) as [|[sp2 tk2] r2] eqn:HQ; [exact I|]. cbn.
    destruct tk2; try (split; [reflexivity | intros X; unfold toks_ahead; cbn; rewrite HC, ?HQ; reflexivity]).
Qed.

#[local] Arguments node_content : simpl never.
#[local] Arguments node_props : simpl never.

Lemma parse_node_bal p b i :
  Rooted (p_states p) ->
  bpost (flow_balanced (toks_ahead p) (stack_open (p_states p)) = true) (parse_node p b i).
Proof.
  intros HR. unfold parse_node.
  destruct (toks_ahead p) as [|[sp tk] r] eqn:HT; [rewrite (peek_nil _ HT); exact I|].
  rewrite (peek_norm _ _ _ HT). cbn beta iota.
  set (q := set_tok p r (Some (sp, tk))).
  assert (HQ : p_token q = Some (sp, tk)) by reflexivity.
  assert (HRq : Rooted (p_states q)) by exact HR.
  assert (HTq : toks_ahead q = (sp, tk) :: r) by reflexivity.
  assert (General :
    bpost (flow_balanced ((sp, tk) :: r) (stack_open (p_states p)) = true)
          (do (aid, tg, p0) <- node_props q (sp, tk); node_content p0 aid tg b i)).
  { pose proof (node_props_toks q sp tk HQ) as HN.
    destruct (node_props q (sp, tk)) as [[[aid tg] q']|e|n]; try exact I.
    destruct HN as [Hst Hb].
    assert (HR' : Rooted (p_states q')) by (rewrite Hst; exact HRq).
    pose proof (node_content_bal q' aid tg b i HR') as HC.
    destruct (node_content q' aid tg b i) as [[ev p']|e|n]; try exact I.
    cbn [bpost] in *. destruct HC as [HF HG]. split; [exact HF|].
    intros HGood. specialize (HG HGood). rewrite Hb, Hst, HTq in HG. exact HG. }
  destruct tk; try exact General.
  (* alias *)
  clear General. subst q.
  match goal with |- context [pop_state ?x] =>
    destruct (pop_state_spec x HRq) as (s & r' & F' & Hst & Hpop & _ & _); rewrite Hpop end. cbn.
  destruct (assoc n (p_anchors p)); [|exact I].
  assert (HH : Rooted (s :: r')) by (rewrite <- Hst; exact HRq).
  pose proof (Rooted_head _ _ HH) as N1.
  cbn [bpost]. split.
  - unfold first_ok. cbn. inversion HH as [|s' r'' Hc Hr]; subst; [exact I|]. destruct s; try discriminate; exact I.
  - rewrite Good_goodS. cbn. rewrite (goodS_plain _ _ _ N1). intros H.
    cbn in Hst. rewrite Hst. exact H.
Qed.

(* document level *)
Definition same_brackets (p q : parser) : Prop :=
  p_state q = p_state p /\ p_states q = p_states p /\ forall X, flow_balanced (toks_ahead q) X = flow_balanced (toks_ahead p) X.

Lemma same_brackets_refl p : same_brackets p p.
Proof. repeat split; reflexivity. Qed.

Lemma skip_document_ends_bal fuel : forall p,
  match skip_document_ends fuel p with Parser.Ok q => same_brackets p q | _ => True end.
Proof.
  induction fuel as [|fuel IH]; intros p; [exact I|].
  cbn [skip_document_ends].
  destruct (toks_ahead p) as [|[sp tk] r] eqn:HT; [rewrite (peek_nil _ HT); exact I|].
  rewrite (peek_norm _ _ _ HT). cbn beta iota.
  destruct tk; try (repeat split; try reflexivity; intros X; unfold toks_ahead at 1; cbn; rewrite HT; reflexivity).
  specialize (IH (skip (set_tok p r (Some (sp, TDocumentEnd))))).
  destruct (skip_document_ends fuel _) as [q|e|n]; try exact I.
  destruct IH as (A & B & C). repeat split; [exact A | exact B |].
  intros X. rewrite C. unfold toks_ahead at 1. cbn. rewrite HT. reflexivity.
Qed.

Lemma process_directives_bal fuel : forall p vs tags,
  match process_directives fuel p vs tags with Parser.Ok q => same_brackets p q | _ => True end.
Proof.
  induction fuel as [|fuel IH]; intros p vs tags; [exact I|].
  cbn [process_directives].
  destruct (toks_ahead p) as [|[sp tk] r] eqn:HT; [rewrite (peek_nil _ HT); exact I|].
  rewrite (peek_norm _ _ _ HT). cbn beta iota.
  destruct tk; try (repeat split; try reflexivity; intros X; unfold toks_ahead at 1; cbn; rewrite HT; reflexivity).
  - destruct vs; [exact I|].
    match goal with |- context [process_directives fuel ?q ?a ?b] => specialize (IH q a b); destruct (process_directives fuel q a b) as [q'|e|n] end; try exact I.
    destruct IH as (A & B & C). repeat split; [exact A | exact B |].
    intros X. rewrite C. unfold toks_ahead at 1. cbn. rewrite HT. reflexivity.
  - destruct (negb (is_empty_str h) && has_key h tags); [exact I|].
    match goal with |- context [process_directives fuel ?q ?a ?b] => specialize (IH q a b); destruct (process_directives fuel q a b) as [q'|e|n] end; try exact I.
    destruct IH as (A & B & C). repeat split; [exact A | exact B |].
    intros X. rewrite C. unfold toks_ahead at 1. cbn. rewrite HT. reflexivity.
Qed.


#[local] Arguments parse_node : simpl never.
#[local] Arguments process_directives : simpl never.
#[local] Arguments skip_document_ends : simpl never.

Lemma bpost_parse_node (P : Prop) q b i :
  Rooted (p_states q) ->
  (flow_balanced (toks_ahead q) (stack_open (p_states q)) = true -> P) ->
  bpost P (parse_node q b i).
Proof.
  intros HR HP. pose proof (parse_node_bal q b i HR) as H.
  destruct (parse_node q b i) as [[ev p']|e|n]; try exact I.
  cbn [bpost] in *. destruct H as [A B]. split; [exact A|]. intros G. apply HP, B, G.
Qed.

Ltac bfin HT HR ::=
  first
  [ exact I
  | (apply bpost_parse_node; [ cbn; first [ exact HR | (constructor; [reflexivity | exact HR]) ]
                             | cbn; rewrite ?HT; cbn; (let HH := fresh "HH" in intro HH; exact HH) ])
  | (apply bpost_pop; [ cbn; exact HR | intros; split; reflexivity | intros; reflexivity
                      | cbn; rewrite ?HT; cbn; (let HH := fresh "HH" in intro HH; exact HH) ])
  | (cbn [bpost]; split; [ cbn; first [exact I | (do 2 eexists; reflexivity)]
                         | unfold Good; cbn; rewrite ?HT; cbn; (let HH := fresh "HH" in intro HH; exact HH) ]) ].

#[local] Arguments tin : simpl never.
#[local] Arguments flow_balanced : simpl nomatch.

(* follow a state function in its if-form; every kind tested with [tis] has no payload, so the branch in which the
   test holds knows the token, which is what [flow_balanced] needs when the token is consumed *)
Ltac bx HT HR :=
  cbn;
  lazymatch goal with
  | |- bpost _ (if tis ?c ?k then _ else _) =>
      let E := fresh "E" in destruct (tis c k) eqn:E; [apply tis_bare in E; [subst k | reflexivity] | ]; bx HT HR
  | |- bpost _ (match (if tis ?c ?k then _ else _) with _ => _ end) =>
      let E := fresh "E" in destruct (tis c k) eqn:E; [apply tis_bare in E; [subst k | reflexivity] | ]; bx HT HR
  | |- bpost _ (if tin ?l ?k then _ else _) => destruct (tin l k); bx HT HR
  | |- bpost _ (match ?r with [] => _ | _ :: _ => _ end) => is_var r; destruct r as [|[? ?] ?]; bx HT HR
  | |- bpost _ (match (match ?r with [] => _ | _ :: _ => _ end) with _ => _ end) => is_var r; destruct r as [|[? ?] ?]; bx HT HR
  | |- _ => bfin HT HR
  end.

(* start: split on the remaining tokens of [p] and normalise the first peek *)
Ltac bstart HT :=
  match goal with
  | |- context [Parser.peek ?p] =>
      destruct (toks_ahead p) as [|[? ?] ?] eqn:HT; [rewrite (peek_nil _ HT); exact I | rewrite (peek_norm _ _ _ HT)]
  end.

Lemma block_mapping_key_bal p :
  Rooted (p_states p) ->
  bpost (flow_balanced (toks_ahead p) (stack_open (p_states p)) = true) (block_mapping_key p false).
Proof. intros HR. rewrite block_mapping_key_if. unfold node_or_empty. bstart HT; bx HT HR. Qed.

Lemma block_mapping_first_key_bal p sp0 r0 :
  Rooted (p_states p) -> toks_ahead p = (sp0, TBlockMappingStart) :: r0 ->
  bpost (flow_balanced (toks_ahead p) (stack_open (p_states p)) = true) (block_mapping_key p true).
Proof. intros HR HT. rewrite block_mapping_key_if. unfold node_or_empty. rewrite (peek_norm _ _ _ HT). bx HT HR. Qed.

Lemma block_mapping_value_bal p :
  Rooted (p_states p) ->
  bpost (flow_balanced (toks_ahead p) (stack_open (p_states p)) = true) (block_mapping_value p).
Proof. intros HR. rewrite block_mapping_value_if. unfold node_or_empty. bstart HT; bx HT HR. Qed.

Lemma block_sequence_entry_bal p :
  Rooted (p_states p) ->
  bpost (flow_balanced (toks_ahead p) (stack_open (p_states p)) = true) (block_sequence_entry p false).
Proof. intros HR. rewrite block_sequence_entry_if. unfold node_or_empty. bstart HT; bx HT HR. Qed.

Lemma block_sequence_first_entry_bal p sp0 r0 :
  Rooted (p_states p) -> toks_ahead p = (sp0, TBlockSequenceStart) :: r0 ->
  bpost (flow_balanced (toks_ahead p) (stack_open (p_states p)) = true) (block_sequence_entry p true).
Proof. intros HR HT. rewrite block_sequence_entry_if. unfold node_or_empty. rewrite (peek_norm _ _ _ HT). bx HT HR. Qed.

Lemma indentless_sequence_entry_bal p :
  Rooted (p_states p) ->
  bpost (flow_balanced (toks_ahead p) (stack_open (p_states p)) = true) (indentless_sequence_entry p).
Proof. intros HR. rewrite indentless_sequence_entry_if. unfold node_or_empty. bstart HT; bx HT HR. Qed.

Lemma flow_sequence_entry_bal p :
  Rooted (p_states p) ->
  bpost (flow_balanced (toks_ahead p) (true :: stack_open (p_states p)) = true) (flow_sequence_entry p false).
Proof. intros HR. rewrite flow_sequence_entry_if. unfold node_or_empty. bstart HT; bx HT HR. Qed.

Lemma flow_sequence_first_entry_bal p sp0 r0 :
  Rooted (p_states p) -> toks_ahead p = (sp0, TFlowSequenceStart) :: r0 ->
  bpost (flow_balanced (toks_ahead p) (stack_open (p_states p)) = true) (flow_sequence_entry p true).
Proof. intros HR HT. rewrite flow_sequence_entry_if. unfold node_or_empty. rewrite (peek_norm _ _ _ HT). bx HT HR. Qed.

Lemma flow_mapping_key_bal p :
  Rooted (p_states p) ->
  bpost (flow_balanced (toks_ahead p) (false :: stack_open (p_states p)) = true) (flow_mapping_key p false).
Proof. intros HR. rewrite flow_mapping_key_if. unfold node_or_empty. bstart HT; bx HT HR. Qed.

Lemma flow_mapping_first_key_bal p sp0 r0 :
  Rooted (p_states p) -> toks_ahead p = (sp0, TFlowMappingStart) :: r0 ->
  bpost (flow_balanced (toks_ahead p) (stack_open (p_states p)) = true) (flow_mapping_key p true).
Proof. intros HR HT. rewrite flow_mapping_key_if. unfold node_or_empty. rewrite (peek_norm _ _ _ HT). bx HT HR. Qed.

Lemma flow_mapping_value_bal p empty :
  Rooted (p_states p) ->
  bpost (flow_balanced (toks_ahead p) (false :: stack_open (p_states p)) = true) (flow_mapping_value p empty).
Proof. intros HR. rewrite flow_mapping_value_if. destruct empty; bstart HT; bx HT HR. Qed.

Lemma fsem_key_bal p :
  Rooted (p_states p) ->
  bpost (flow_balanced (toks_ahead p) (true :: stack_open (p_states p)) = true) (flow_sequence_entry_mapping_key p).
Proof. intros HR. rewrite flow_sequence_entry_mapping_key_if. unfold node_or_empty. bstart HT; bx HT HR. Qed.

Lemma fsem_value_bal p :
  Rooted (p_states p) ->
  bpost (flow_balanced (toks_ahead p) (true :: stack_open (p_states p)) = true) (flow_sequence_entry_mapping_value p).
Proof. intros HR. rewrite flow_sequence_entry_mapping_value_if. unfold node_or_empty. bstart HT; bx HT HR. Qed.

Lemma fsem_end_bal p m :
  Rooted (p_states p) ->
  bpost (flow_balanced (toks_ahead p) (true :: stack_open (p_states p)) = true) (flow_sequence_entry_mapping_end p m).
Proof. intros HR. unfold flow_sequence_entry_mapping_end. cbn [bpost]. split; [exact I|]. unfold Good. cbn. intro H; exact H. Qed.

(* document level (2) *)
Lemma stream_start_bal p :
  p_states p = [] -> bpost (flow_balanced (toks_ahead p) [] = true) (stream_start p).
Proof.
  intros EK. unfold stream_start. bstart HT. cbn beta iota. destruct t; try exact I.
  cbn [bpost]. split; [exact I|]. unfold Good. cbn. rewrite EK. cbn. intro H; exact H.
Qed.

Lemma explicit_document_start_bal p :
  p_states p = [] -> bpost (flow_balanced (toks_ahead p) [] = true) (explicit_document_start p).
Proof.
  intros EK. unfold explicit_document_start.
  pose proof (process_directives_bal (S (S (length (p_toks p)))) p false []) as HP.
  destruct (process_directives _ p false []) as [q|e|n]; try exact I.
  destruct HP as (A & B & C).
  destruct (toks_ahead q) as [|[sp tk] r] eqn:HT; [rewrite (peek_nil _ HT); exact I|].
  rewrite (peek_norm _ _ _ HT). cbn beta iota. destruct tk; try exact I.
  cbn [bpost]. split; [exact I|]. unfold Good. cbn. rewrite B, EK. cbn.
  intros H. rewrite <- C. cbn. exact H.
Qed.

Lemma document_start_bal p implicit :
  p_states p = [] -> bpost (flow_balanced (toks_ahead p) [] = true) (document_start p implicit).
Proof.
  intros EK. unfold document_start.
  pose proof (skip_document_ends_bal (S (S (length (p_toks p)))) p) as HP.
  destruct (skip_document_ends _ p) as [q|e|n]; try exact I.
  destruct HP as (A & B & C).
  destruct (toks_ahead q) as [|[sp tk] r] eqn:HT; [rewrite (peek_nil _ HT); exact I|].
  rewrite (peek_norm _ _ _ HT). cbn beta iota.
  set (q1 := set_tok q r (Some (sp, tk))).
  assert (EQ : p_states q1 = []) by (unfold q1; cbn; congruence).
  assert (TQ : forall X, flow_balanced (toks_ahead q1) X = flow_balanced (toks_ahead p) X).
  { intros X. rewrite <- C. reflexivity. }
  assert (Expl : bpost (flow_balanced (toks_ahead p) [] = true) (explicit_document_start q1)).
  { pose proof (explicit_document_start_bal q1 EQ) as H.
    destruct (explicit_document_start q1) as [[ev p']|e|n]; try exact I.
    cbn [bpost] in *. destruct H as [H1 H2]. split; [exact H1|]. intros G. rewrite <- TQ. exact (H2 G). }
  destruct tk; try exact Expl;
    try (destruct implicit; [|exact Expl];
         match goal with |- context [process_directives ?f ?x false []] =>
           pose proof (process_directives_bal f x false []) as HP;
           destruct (process_directives f x false []) as [q2|e2|n2]; try exact I end;
         destruct HP as (A2 & B2 & C2);
         cbn [bpost]; split; [exact I|]; unfold Good; cbn; rewrite B2; cbn; rewrite B, EK; cbn;
         intros H; rewrite <- TQ; unfold q1; rewrite <- C2; exact H).
  (* StreamEnd *)
  cbn [bpost]. split; [exact I|]. intros _. rewrite <- C. reflexivity.
Qed.

Lemma document_content_bal p :
  Rooted (p_states p) ->
  bpost (flow_balanced (toks_ahead p) (stack_open (p_states p)) = true) (document_content p).
Proof.
  intros HR. unfold document_content. bstart HT. cbn beta iota.
  destruct t; try (apply bpost_parse_node; [cbn; exact HR | cbn; rewrite ?HT; cbn; intro H; exact H]);
    (apply bpost_pop; [ cbn; exact HR | intros; split; reflexivity | intros; reflexivity
                      | cbn; rewrite ?HT; cbn; intro H; exact H ]).
Qed.

Lemma document_end_bal p :
  p_states p = [] -> bpost (flow_balanced (toks_ahead p) [] = true) (document_end p).
Proof.
  intros EK. rewrite document_end_if. bstart HT. cbv zeta. cbn beta iota.
  destruct (tis TDocumentEnd t) eqn:E; cbn [p_keep_tags skip set_tok].
  - apply tis_bare in E; [subst t | reflexivity].
    destruct (p_keep_tags p); cbn [bpost]; (split; [exact I|]); unfold Good; cbn; rewrite EK; intro H; exact H.
  - destruct (p_keep_tags p); peek_next; cbn [fst snd]; (destruct (tin directive_kinds t); [exact I|]);
      cbn [bpost]; (split; [exact I|]); unfold Good; cbn; rewrite EK; intro H; exact H.
Qed.

Theorem state_machine_bal p g :
  Inv p g -> first_ok p -> p_state p <> SEnd -> bpost (Good p) (state_machine p).
Proof.
  unfold Inv, state_machine, Good, first_ok. intros HI HF HE.
  destruct (p_state p) eqn:ES; cbn [InvS cur_frames] in HI;
    try (destruct HI as [HK _]);
    cbn [frames_of app].
  - rewrite HK. apply stream_start_bal; exact HK.
  - rewrite HK. apply document_start_bal; exact HK.
  - rewrite HK. apply document_start_bal; exact HK.
  - apply document_content_bal; exact HK.
  - rewrite HK. apply document_end_bal; exact HK.
  - apply parse_node_bal; exact HK.
  - destruct HF as (sp0 & r0 & HT). eapply block_sequence_first_entry_bal; [exact HK | exact HT].
  - apply block_sequence_entry_bal; exact HK.
  - apply indentless_sequence_entry_bal; exact HK.
  - destruct HF as (sp0 & r0 & HT). eapply block_mapping_first_key_bal; [exact HK | exact HT].
  - apply block_mapping_key_bal; exact HK.
  - apply block_mapping_value_bal; exact HK.
  - destruct HF as (sp0 & r0 & HT). eapply flow_sequence_first_entry_bal; [exact HK | exact HT].
  - apply flow_sequence_entry_bal; exact HK.
  - apply fsem_key_bal; exact HK.
  - apply fsem_value_bal; exact HK.
  - apply fsem_end_bal; exact HK.
  - destruct HF as (sp0 & r0 & HT). eapply flow_mapping_first_key_bal; [exact HK | exact HT].
  - apply flow_mapping_key_bal; exact HK.
  - apply flow_mapping_value_bal; exact HK.
  - apply flow_mapping_value_bal; exact HK.
  - congruence.
Qed.

Lemma parse_all_good fuel : forall p se acc g,
  Inv p g -> first_ok p -> snd (parse_all fuel p se acc) = PDone -> Good p.
Proof.
  induction fuel as [|fuel IH]; intros p se acc g HI HF HD; [cbn in HD; discriminate|].
  rewrite parse_all_S in HD.
  destruct (N.eq_dec 0 0) as [_|]; [|congruence].
  assert (HS : p_state p = SEnd \/ p_state p <> SEnd) by (destruct (p_state p); (left; reflexivity) || (right; discriminate)).
  destruct HS as [HS|HS]; [unfold Good; rewrite HS; exact I|].
  assert (HD' : snd (step_result fuel p se acc) = PDone) by (destruct (p_state p); try exact HD; congruence).
  unfold step_result in HD'.
  pose proof (state_machine_post p g HI HS) as HP.
  pose proof (state_machine_bal p g HI HF HS) as HB.
  destruct (state_machine p) as [[[e sp] p']|er|n].
  - destruct HP as [g' [_ HI']]. cbn [bpost] in HB. destruct HB as [HF' HG].
    apply HG. exact (IH p' se ((e, sp) :: acc) g' HI' HF' HD').
  - destruct er; [destruct se; cbn in HD'; discriminate | cbn in HD'; discriminate].
  - cbn in HD'. discriminate.
Qed.

(* Every token stream the parser accepts (for ANY token list, scanner ending and fuel) obeys the bracket discipline:
   flow brackets are balanced and matched up to StreamEnd -- no flow collection open at StreamEnd, no closer of the
   wrong kind, no stray closer. *)
Theorem accepted_implies_balanced_proved : accepted_implies_balanced.
Proof.
  intros toks keep se fuel H. pose proof (parse_all_good fuel _ se [] GInit (init_inv toks keep) I H) as G.
  exact G.
Qed.
