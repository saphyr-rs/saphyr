(* C15, scanner half: the skeleton invariant of the scanner and what a document marker leaves behind.

   Generic in the input type and its operations ([ops] is arbitrary: the character-level scanners are only known
   to be frames, Proofs/ScanFrame.v), for every fuel parameter, for every state — no bound on the input.

   1. [SkInv] holds in every state the scanner can reach:
        - the simple-key stack has one entry per flow level plus one (before StreamStart: everything is empty),
        - the indent stack is a strictly increasing chain that bottoms out at -1,
        - the implicit-flow-mapping stack [sc_ifms] (one entry per open '[' or '{', /repo ad74b3e) has exactly
          [sc_flow_level] entries.
      Hence outside flow collections — in particular between documents — there is NO implicit-flow-mapping state
      at all: the defect class "flow_mapping_started leaks into the next document" cannot recur in this design.
   2. After a document marker ('---' or '...') fetched at flow level 0 the skeleton is the configuration the scanner
      had right after StreamStart: indent -1, no indents, flow level 0, no implicit-flow-mapping state, one simple-key
      slot holding no candidate.  Simple keys are not allowed on the marker line itself; once the line break after
      the marker has been consumed they are allowed again, exactly as at the start of the stream. *)
From Coq Require Import List NArith ZArith Bool Lia.
Import ListNotations.
Require Import Parser SBase SPrim SDir SScalar SFetch DispatchTie ScanFrame ScanLeaf.

Section Skel.
Context {I : Type}.
Notation st := (sc I).
Notation M := (@M I).

(* Hoare triples for normal returns *)
Definition Tr {A} (P : st -> Prop) (m : M A) (Q : A -> st -> Prop) : Prop :=
  forall s a s', P s -> m s = Ok (a, s') -> Q a s'.

Lemma Tr_bind {A B} P (m : M A) (f : A -> M B) R Q :
  Tr P m R -> (forall a, Tr (R a) (f a) Q) -> Tr P (bind m f) Q.
Proof.
  intros Hm Hf s b s' HP H. apply bind_inv in H. destruct H as (a & s1 & E & H).
  eapply Hf; [eapply Hm; eauto|exact H].
Qed.
Lemma Tr_conseq {A} (P P' : st -> Prop) (m : M A) (Q Q' : A -> st -> Prop) :
  Tr P' m Q' -> (forall s, P s -> P' s) -> (forall a s, Q' a s -> Q a s) -> Tr P m Q.
Proof. intros H HP HQ s a s' Hs E. apply HQ. eapply H; eauto. Qed.
Lemma Tr_ret {A} (P : st -> Prop) (a : A) (Q : A -> st -> Prop) : (forall s, P s -> Q a s) -> Tr P (ret a) Q.
Proof. intros H s a' s' HP E. inversion E; subst. auto. Qed.
Lemma Tr_fail {A} P e mk (Q : A -> st -> Prop) : Tr P (fail e mk) Q.
Proof. intros s a s' _ E. discriminate. Qed.
Lemma Tr_get_bind {B} P (f : st -> M B) Q :
  (forall s0, Tr (fun s => P s /\ s = s0) (f s0) Q) -> Tr P (bind get f) Q.
Proof. intros H s b s' HP E. unfold bind, get in E. eapply H; eauto. Qed.

(* the skeleton invariant *)
Fixpoint chain (top : Z) (l : list indent_rec) : Prop :=
  match l with
  | [] => top = (-1)%Z
  | i :: r => (in_indent i < top)%Z /\ chain (in_indent i) r
  end.

Lemma chain_ge l : forall top, chain top l -> (-1 <= top)%Z.
Proof. induction l as [|i r IH]; intros top H; cbn in H; [lia|]. destruct H as [H1 H2]. specialize (IH _ H2). lia. Qed.
Lemma chain_bottom top l : chain top l -> (top <= -1)%Z -> top = (-1)%Z /\ l = [].
Proof.
  destruct l as [|i r]; cbn; [auto|]. intros [H1 H2] H. pose proof (chain_ge _ _ H2). lia.
Qed.
Lemma chain_unroll_nb l : forall ind, chain ind l -> chain (fst (unroll_nb l ind)) (snd (unroll_nb l ind)).
Proof.
  induction l as [|i r IH]; intros ind H; cbn [unroll_nb]; [exact H|].
  destruct (in_needs_block_end i); cbn [fst snd]; [exact H|]. destruct H as [_ H]. apply IH. exact H.
Qed.

Definition SkInv (s : st) : Prop :=
  (if sc_stream_start s then N.of_nat (length (sc_sks s)) = (sc_flow_level s + 1)%N
   else sc_sks s = [] /\ sc_flow_level s = 0%N /\ sc_indents s = [])
  /\ chain (sc_indent s) (sc_indents s)
  /\ N.of_nat (length (sc_ifms s)) = sc_flow_level s.

(* the part that every step after StreamStart preserves, whatever happens to the flow level *)
Definition SkB (s : st) : Prop :=
  sc_stream_start s = true /\ N.of_nat (length (sc_sks s)) = (sc_flow_level s + 1)%N
  /\ chain (sc_indent s) (sc_indents s).

Lemma SkInv_init (i : I) : SkInv (init_sc i).
Proof. unfold SkInv; cbn. auto. Qed.

Lemma SkInv_split s : sc_stream_start s = true ->
  (SkInv s <-> SkB s /\ N.of_nat (length (sc_ifms s)) = sc_flow_level s).
Proof. intros E. unfold SkInv, SkB. rewrite E. tauto. Qed.

(* The headline consequence: outside flow collections there is no implicit-flow-mapping state. *)
Lemma SkInv_ifms_nil s : SkInv s -> sc_flow_level s = 0%N -> sc_ifms s = [].
Proof. intros (_ & _ & H) E. rewrite E in H. destruct (sc_ifms s); [reflexivity|discriminate]. Qed.

(* [Keepk m]: m preserves SkB, the flow level and the depth of the implicit-flow-mapping stack *)
Definition kpost (s s' : st) : Prop :=
  SkB s' /\ sc_flow_level s' = sc_flow_level s /\ length (sc_ifms s') = length (sc_ifms s).
Definition Keepk {A} (m : M A) : Prop := forall s a s', SkB s -> m s = Ok (a, s') -> kpost s s'.

Lemma kpost_refl s : SkB s -> kpost s s.
Proof. unfold kpost; auto. Qed.
Lemma kpost_trans s1 s2 s3 : kpost s1 s2 -> kpost s2 s3 -> kpost s1 s3.
Proof. unfold kpost. intros (A & B & C) (D & E & F). split; [exact D|split; congruence]. Qed.

(* [Keepk] is [Pres] at the relation "[kpost], from a state with [SkB]" *)
Definition kstep (s s' : st) : Prop := SkB s -> kpost s s'.
Lemma kstep_trans s1 s2 s3 : kstep s1 s2 -> kstep s2 s3 -> kstep s1 s3.
Proof. intros H1 H2 HB. pose proof (H1 HB) as K. exact (kpost_trans _ _ _ K (H2 (proj1 K))). Qed.
Lemma Keepk_Pres {A} (m : M A) : Keepk m <-> Pres kstep m.
Proof.
  split; intros H s a s'.
  - intros E HB. exact (H s a s' HB E).
  - intros HB E. exact (H s a s' E HB).
Qed.

Lemma Keepk_bind {A B} (m : M A) (f : A -> M B) : Keepk m -> (forall a, Keepk (f a)) -> Keepk (bind m f).
Proof.
  intros Hm Hf. apply Keepk_Pres, (Pres_bind kstep kstep_trans); [apply Keepk_Pres, Hm|intros a; apply Keepk_Pres, Hf].
Qed.
Lemma Keepk_ret {A} (a : A) : Keepk (ret a).
Proof. apply Keepk_Pres, Pres_ret. exact kpost_refl. Qed.
Lemma Keepk_fail {A} e mk : Keepk (@fail I A e mk).
Proof. apply Keepk_Pres, Pres_fail. Qed.
Lemma Keepk_panic {A} n : Keepk (@panic I A n).
Proof. apply Keepk_Pres, Pres_panic. Qed.
Lemma Keepk_oof {A} : Keepk (@oof I A).
Proof. apply Keepk_Pres, Pres_oof. Qed.
Lemma Keepk_get : Keepk (@get I).
Proof. apply Keepk_Pres, Pres_get. exact kpost_refl. Qed.
Lemma Keepk_gets {A} (f : st -> A) : Keepk (gets f).
Proof. apply Keepk_Pres, Pres_gets. exact kpost_refl. Qed.

Lemma kstep_frame s s' : frame s s' -> kstep s s'.
Proof.
  intros (F1 & F2 & F3 & _ & _ & F6 & _ & _ & _ & _ & F11) (B1 & B2 & B3).
  unfold kpost, SkB. rewrite F1, F2, F3, F6. repeat split; auto.
  destruct F11 as [F|F]; cbn [fst snd] in F.
  - inversion F as [[F1' F2']]. rewrite F1', F2'. exact B3.
  - pose proof (chain_unroll_nb _ _ B3) as C. rewrite <- F in C. exact C.
Qed.
Lemma Keepk_of_Fr {A} (m : M A) : Fr m -> Keepk m.
Proof. intros HF. apply Keepk_Pres. exact (Pres_impl frame kstep m kstep_frame HF). Qed.

(* changes outside the skeleton view *)
Definition vsame (s s' : st) : Prop :=
  sc_sks s' = sc_sks s /\ sc_flow_level s' = sc_flow_level s /\ sc_ifms s' = sc_ifms s
  /\ sc_stream_start s' = sc_stream_start s /\ sc_indent s' = sc_indent s /\ sc_indents s' = sc_indents s.
Lemma kpost_vsame s s' : SkB s -> vsame s s' -> kpost s s'.
Proof.
  intros (B1 & B2 & B3) (V1 & V2 & V3 & V4 & V5 & V6). unfold kpost, SkB. rewrite V1, V2, V3, V4, V5, V6. auto.
Qed.
Lemma Keepk_modify f : (forall s, vsame s (f s)) -> Keepk (modify f).
Proof. intros Hf. apply Keepk_Pres, Pres_modify. intros s HB. apply kpost_vsame; auto. Qed.

Lemma Keepk_push_tok t : Keepk (@push_tok I t).
Proof. apply Keepk_modify. intros s. unfold vsame; cbn; auto 10. Qed.
Lemma Keepk_insert_token n t : Keepk (@insert_token I n t).
Proof.
  intros s a s' HB. unfold insert_token. destruct (insert_at _ _ _); try discriminate.
  intros H; inversion H; subst. apply kpost_vsame; auto. unfold vsame; cbn; auto 10.
Qed.
Lemma Keepk_allow : Keepk (@allow_simple_key I).
Proof. apply Keepk_modify. intros s. unfold vsame; cbn; auto 10. Qed.
Lemma Keepk_disallow : Keepk (@disallow_simple_key I).
Proof. apply Keepk_modify. intros s. unfold vsame; cbn; auto 10. Qed.

(* simple keys *)
Lemma sks_nonempty s : SkB s -> sc_sks s <> [].
Proof. intros (_ & H & _) E. rewrite E in H. cbn in H. lia. Qed.

Lemma kpost_set_sks s l : SkB s -> length l = length (sc_sks s) -> kpost s (set_sks l s).
Proof. intros (B1 & B2 & B3) H. unfold kpost, SkB; cbn. rewrite H. auto. Qed.

Lemma Keepk_save_simple_key : Keepk (@save_simple_key I).
Proof.
  intros s a s' HB. pose proof (sks_nonempty _ HB) as NE.
  unfold save_simple_key, bind, get, put, ret, panic.
  destruct (sc_ska s); [|intros H; inversion H; subst; apply kpost_refl; auto].
  destruct (_ && _).
  - destruct (sc_indents s); [discriminate|]. intros H; inversion H; subst.
    apply kpost_set_sks; auto. destruct (sc_sks s); [congruence|reflexivity].
  - intros H; inversion H; subst. apply kpost_set_sks; auto. destruct (sc_sks s); [congruence|reflexivity].
Qed.

Lemma Keepk_remove_simple_key : Keepk (@remove_simple_key I).
Proof.
  intros s a s' HB. unfold remove_simple_key, bind, get, put, fail, panic.
  destruct (sc_sks s) as [|k r] eqn:E; [discriminate|]. destruct (_ && _); [discriminate|].
  intros H; inversion H; subst. apply kpost_set_sks; auto. rewrite E. reflexivity.
Qed.

Lemma Keepk_stale_simple_keys : Keepk (@stale_simple_keys I).
Proof.
  intros s a s' HB. unfold stale_simple_keys, bind, get, put, fail.
  destruct (existsb _ _); [discriminate|]. intros H; inversion H; subst.
  apply kpost_set_sks; auto. apply map_length.
Qed.

(* indentation *)
Lemma kpost_set_indent s ind inds : SkB s -> chain ind inds -> kpost s (set_indent ind inds s).
Proof. intros (B1 & B2 & B3) H. unfold kpost, SkB; cbn. auto. Qed.

(* unroll_indent: exact shape of the result *)
Lemma unroll_indent_go_spec fuel col : forall (s s' : st),
  chain (sc_indent s) (sc_indents s) ->
  unroll_indent_go fuel col s = Ok (tt, s') ->
  exists ind inds toks, s' = set_tokens (sc_tokens s ++ toks) (set_indent ind inds s) /\ chain ind inds /\ (ind <= col)%Z
                        /\ Forall (fun t => snd t = TBlockEnd) toks.
Proof.
  induction fuel as [|fuel IH]; intros s s' HC; cbn [unroll_indent_go]; [discriminate|].
  unfold bind at 1, get at 1. destruct (col <? sc_indent s)%Z eqn:EC.
  - destruct (sc_indents s) as [|i r] eqn:EI; [discriminate|].
    destruct HC as [HC1 HC2].
    unfold bind at 1, put at 1.
    destruct (in_needs_block_end i).
    + unfold bind at 1, push_tok at 1, modify at 1. intros H.
      apply IH in H; [|cbn; exact HC2]. destruct H as (ind & inds & toks & -> & H1 & H2 & H3).
      exists ind, inds, ((span_empty (sc_mark s), TBlockEnd) :: toks). cbn. rewrite <- app_assoc. cbn.
      repeat split; auto.
    + unfold bind at 1, ret at 1. intros H.
      apply IH in H; [|cbn; exact HC2]. destruct H as (ind & inds & toks & -> & H1 & H2 & H3).
      exists ind, inds, toks. cbn. repeat split; auto.
  - unfold ret. intros H. assert (Es : s' = s) by (inversion H; reflexivity). subst s'. clear H.
    exists (sc_indent s), (sc_indents s), []. rewrite app_nil_r.
    repeat split; auto; [destruct s; reflexivity | apply Z.ltb_ge in EC; exact EC].
Qed.

Lemma Keepk_unroll_indent col : Keepk (@unroll_indent I col).
Proof.
  intros s a s' HB. unfold unroll_indent, bind, get.
  destruct (0 <? sc_flow_level s)%N; [intros H; inversion H; subst; apply kpost_refl; auto|].
  destruct a. intros H. apply unroll_indent_go_spec in H; [|apply HB].
  destruct H as (ind & inds & toks & -> & H1 & _).
  destruct HB as (B1 & B2 & B3). unfold kpost, SkB; cbn. auto.
Qed.

Lemma Keepk_roll_indent col num tk mk : Keepk (@roll_indent I col num tk mk).
Proof.
  intros s a s' HB. unfold roll_indent. unfold bind at 1, get at 1.
  destruct (0 <? sc_flow_level s)%N; [intros H; inversion H; subst; apply kpost_refl; auto|].
  assert (HC : forall p, p = (if (sc_indent s <=? Z.of_N col)%Z
                 then match sc_indents s with
                      | i :: r => if negb (in_needs_block_end i) then (in_indent i, r) else (sc_indent s, sc_indents s)
                      | [] => (sc_indent s, sc_indents s)
                      end
                 else (sc_indent s, sc_indents s)) -> chain (fst p) (snd p)).
  { intros p ->. destruct HB as (_ & _ & B3). destruct (_ <=? _)%Z; [|exact B3].
    destruct (sc_indents s) as [|i r]; [exact B3|]. destruct (negb _); [|exact B3]. cbn. apply B3. }
  specialize (HC _ eq_refl). destruct (if (sc_indent s <=? Z.of_N col)%Z then _ else _) as [ind inds]. cbn in HC.
  destruct (ind <? Z.of_N col)%Z eqn:EL.
  - destruct (BLOCK_NESTING_MAX <=? N.of_nat (length inds))%N; [discriminate|].
    assert (K : kpost s (set_indent (Z.of_N col) ({| in_indent := ind; in_needs_block_end := true |} :: inds) s)).
    { apply kpost_set_indent; auto. cbn. split; [apply Z.ltb_lt; exact EL|exact HC]. }
    unfold bind at 1, put at 1. destruct num as [n|].
    + destruct (n <? sc_tokens_parsed s)%N; [discriminate|]. intros H.
      eapply kpost_trans; [exact K|]. eapply Keepk_insert_token; [apply K|exact H].
    + intros H. eapply kpost_trans; [exact K|]. eapply Keepk_push_tok; [apply K|exact H].
  - unfold put. intros H; inversion H; subst. apply kpost_set_indent; auto.
Qed.

Lemma Keepk_roll_one_col_indent : Keepk (@roll_one_col_indent I).
Proof.
  intros s a s' HB. unfold roll_one_col_indent, bind, get, put, ret.
  destruct (_ && _); intros H; inversion H; subst; [|apply kpost_refl; auto].
  apply kpost_set_indent; auto. cbn. split; [lia|apply HB].
Qed.

(* the implicit-flow-mapping stack: depth-preserving updates *)
Lemma kpost_set_ifms s l : SkB s -> length l = length (sc_ifms s) -> kpost s (set_ifms l s).
Proof. intros (B1 & B2 & B3) H. unfold kpost, SkB; cbn. auto. Qed.

Lemma Keepk_end_implicit_mapping mk : Keepk (@end_implicit_mapping I mk).
Proof.
  intros s a s' HB. unfold end_implicit_mapping. unfold bind at 1, get at 1.
  destruct (sc_ifms s) as [|[| | |] r] eqn:E; try (intros H; inversion H; subst; apply kpost_refl; auto).
  - unfold bind, put, push_tok, modify. intros H; inversion H; subst.
    destruct HB as (B1 & B2 & B3). unfold kpost, SkB; cbn. rewrite E. auto.
  - unfold put. intros H; inversion H; subst. apply kpost_set_ifms; auto. rewrite E; reflexivity.
Qed.

Lemma Keepk_key_ifms : Keepk (modify (fun s : st => match sc_ifms s with
                         | ImPossible :: r => set_ifms (ImInsideExplicitKey :: r) s
                         | _ => s end)).
Proof.
  intros s a s' HB H. inversion H; subst.
  destruct (sc_ifms s) as [|[| | |] r] eqn:E; try (apply kpost_refl; auto).
  apply kpost_set_ifms; auto. rewrite E; reflexivity.
Qed.

Lemma Keepk_value_ifms (b : bool) : forall s0 : st,
  b = (match sc_ifms s0 with ImPossible :: _ => true | _ => false end) ->
  forall s a s', SkB s -> sc_ifms s = sc_ifms s0 ->
  (if b then modify (fun s : st => set_ifms (ImInside :: tl (sc_ifms s)) s) else ret tt) s = Ok (a, s') -> kpost s s'.
Proof.
  intros s0 Hb s a s' HB E. destruct b.
  - intros H; inversion H; subst. apply kpost_set_ifms; auto. rewrite E.
    destruct (sc_ifms s0) as [|[| | |] r]; try discriminate; reflexivity.
  - intros H; inversion H; subst. apply kpost_refl; auto.
Qed.

End Skel.

#[export] Hint Resolve Keepk_ret Keepk_fail Keepk_panic Keepk_oof Keepk_get Keepk_gets Keepk_push_tok Keepk_insert_token
  Keepk_allow Keepk_disallow Keepk_save_simple_key Keepk_remove_simple_key Keepk_stale_simple_keys Keepk_unroll_indent
  Keepk_roll_indent Keepk_roll_one_col_indent Keepk_end_implicit_mapping Keepk_key_ifms : kk.

Ltac kk :=
  walk ltac:(apply Keepk_bind)
       ltac:(first [assumption | solve [auto with kk] | solve [apply Keepk_of_Fr; auto with fr]]).

(* the token-level skeleton (Model/SFetch.v) *)
Section FetchInv.
Context {I : Type} (ops : InputOps I).
Notation st := (sc I).
Notation M := (@M I).
Variable F : nat.

Lemma kpost_bind {A B} (m : M A) (f : A -> M B) s b s' :
  SkB s -> (forall a s1, m s = Ok (a, s1) -> kpost s s1) -> (forall a, Keepk (f a)) ->
  bind m f s = Ok (b, s') -> kpost s s'.
Proof.
  intros HB Hm Hf H. apply bind_inv in H. destruct H as (a & s1 & E & H).
  pose proof (Hm _ _ E) as K1. eapply kpost_trans; [exact K1|]. eapply Hf; [apply K1|exact H].
Qed.

(* every fetch function that does not open or close a flow collection *)
Lemma Keepk_fetch_stream_end : Keepk (fetch_stream_end (I:=I)).
Proof.
  unfold fetch_stream_end. apply Keepk_bind; [apply Keepk_modify; intros s; destruct (_ =? _)%N; unfold vsame; cbn; auto 10|intros _].
  intros s a s' HB. unfold bind at 1, get at 1. destruct (existsb _ _); [discriminate|].
  apply kpost_bind; auto.
  - intros a0 s1 H; inversion H; subst. apply kpost_set_sks; auto. apply map_length.
  - intros _. kk.
Qed.
Lemma Keepk_fetch_directive : Keepk (fetch_directive ops F).
Proof. unfold fetch_directive. kk. Qed.
Lemma Keepk_fetch_tag : Keepk (fetch_tag ops F).
Proof. unfold fetch_tag. kk. Qed.
Lemma Keepk_fetch_anchor alias : Keepk (fetch_anchor ops F alias).
Proof. unfold fetch_anchor. kk. Qed.
Lemma Keepk_fetch_flow_entry : Keepk (fetch_flow_entry ops F).
Proof. unfold fetch_flow_entry. kk. Qed.
Lemma Keepk_fetch_block_entry : Keepk (fetch_block_entry ops F).
Proof. unfold fetch_block_entry. kk. Qed.
Lemma Keepk_fetch_document_indicator t : Keepk (fetch_document_indicator ops t).
Proof. unfold fetch_document_indicator. kk. Qed.
Lemma Keepk_fetch_block_scalar lit : Keepk (fetch_block_scalar ops F lit).
Proof. unfold fetch_block_scalar. kk. Qed.
Lemma Keepk_set_adj : Keepk (modify (fun s : st => set_adj (m_index (sc_mark s)) s)).
Proof. apply Keepk_modify. intros s. unfold vsame; cbn; auto 10. Qed.
Hint Resolve Keepk_set_adj : kk.
Lemma Keepk_fetch_flow_scalar single : Keepk (fetch_flow_scalar ops F single).
Proof. unfold fetch_flow_scalar. kk. Qed.
Lemma Keepk_fetch_plain_scalar : Keepk (fetch_plain_scalar ops F).
Proof. unfold fetch_plain_scalar. kk. Qed.
Lemma Keepk_fetch_key : Keepk (fetch_key ops F).
Proof. unfold fetch_key. kk. Qed.

Lemma Keepk_kill_key : Keepk (modify (fun s : st => match sc_sks s with
                     | k :: r => set_sks ({| sk_possible := false; sk_required := sk_required k;
                                             sk_token_number := sk_token_number k; sk_mark := sk_mark k |} :: r) s
                     | [] => s end)).
Proof.
  intros s a s' HB H. inversion H; subst. destruct (sc_sks s) as [|k r] eqn:E; [apply kpost_refl; auto|].
  apply kpost_set_sks; auto. rewrite E; reflexivity.
Qed.
Hint Resolve Keepk_kill_key : kk.

Lemma Keepk_fetch_value : Keepk (fetch_value ops F).
Proof.
  intros s a s' HB. unfold fetch_value. unfold bind at 1, get at 1.
  destruct (sc_sks s) as [|sk r] eqn:Es; [discriminate|]. unfold bind at 1, ret at 1. cbv zeta.
  apply kpost_bind; auto.
  - intros a0 s1 H. eapply (Keepk_value_ifms _ s eq_refl); eauto.
  - intros _. kk.
Qed.
Lemma Keepk_fetch_flow_value : Keepk (fetch_flow_value ops F).
Proof. unfold fetch_flow_value. kk. apply Keepk_fetch_value. Qed.

(* flow collections: the only places where the flow level and the depth of [sc_ifms] move — together *)
Definition SkP (P : N -> nat -> Prop) (s : st) : Prop := SkB s /\ P (sc_flow_level s) (length (sc_ifms s)).
Definition eqP : N -> nat -> Prop := fun fl n => N.of_nat n = fl.

Lemma Tr_SkP_Keepk {A} P (m : M A) : Keepk m -> Tr (SkP P) m (fun _ => SkP P).
Proof. intros K s a s' [HB HP] E. destruct (K _ _ _ HB E) as (B' & E1 & E2). split; [exact B'|]. rewrite E1, E2. exact HP. Qed.

Lemma Tr_increase P : Tr (SkP P) (@increase_flow_level I) (fun _ => SkP (fun fl n => exists fl0, fl = (fl0 + 1)%N /\ P fl0 n)).
Proof.
  intros s a s' [(B1 & B2 & B3) HP]. unfold increase_flow_level, bind, get, put.
  destruct (_ =? _)%N; [discriminate|]. intros H; inversion H; subst. unfold SkP, SkB; cbn.
  repeat split; auto; [lia|]. exists (sc_flow_level s). auto.
Qed.
Lemma Tr_push_ifms P x : Tr (SkP P) (modify (fun s : st => set_ifms (x :: sc_ifms s) s))
                            (fun _ => SkP (fun fl n => exists n0, n = S n0 /\ P fl n0)).
Proof.
  intros s a s' [(B1 & B2 & B3) HP] H. inversion H; subst. unfold SkP, SkB; cbn. repeat split; auto. eexists; eauto.
Qed.
Lemma Tr_decrease P : Tr (SkP P) (@decrease_flow_level I)
                         (fun _ => SkP (fun fl n => P (fl + 1)%N n \/ (fl = 0%N /\ P 0%N n))).
Proof.
  intros s a s' [(B1 & B2 & B3) HP]. unfold decrease_flow_level, bind, get, put, ret.
  destruct (0 <? sc_flow_level s)%N eqn:E.
  - destruct (sc_sks s) as [|k r] eqn:Es; [discriminate|]. intros H; inversion H; subst. apply N.ltb_lt in E.
    unfold SkP, SkB; cbn. cbn in B2. repeat split; auto; [lia|]. left. replace (sc_flow_level s - 1 + 1)%N with (sc_flow_level s) by lia. exact HP.
  - intros H; inversion H; subst. apply N.ltb_ge in E. assert (E0 : sc_flow_level s' = 0%N) by lia.
    unfold SkP, SkB. repeat split; auto. right. split; [exact E0|]. rewrite <- E0. exact HP.
Qed.
Lemma Tr_pop_ifms P : Tr (SkP P) (modify (fun s : st => set_ifms (tl (sc_ifms s)) s))
                         (fun _ => SkP (fun fl n => exists n0, n = pred n0 /\ P fl n0)).
Proof.
  intros s a s' [(B1 & B2 & B3) HP] H. inversion H; subst. unfold SkP, SkB; cbn. repeat split; auto.
  exists (length (sc_ifms s)). split; [destruct (sc_ifms s); reflexivity|exact HP].
Qed.

Ltac trk := eapply Tr_bind; [apply Tr_SkP_Keepk; solve [kk]|intro; cbv beta].

Lemma Tr_fetch_flow_collection_start seq : Tr (SkP eqP) (fetch_flow_collection_start ops F seq) (fun _ => SkP eqP).
Proof.
  unfold fetch_flow_collection_start.
  trk. trk. eapply Tr_bind; [apply Tr_increase|intro; cbv beta]. trk. trk. trk.
  eapply Tr_bind; [apply Tr_push_ifms|intro; cbv beta]. trk. trk.
  eapply Tr_conseq; [apply Tr_SkP_Keepk; kk|intros ? HH; exact HH|].
  intros _ s [HB (n0 & En & fl0 & E & HP)]. split; [exact HB|]. unfold eqP in *. rewrite E, En. lia.
Qed.

Lemma Keepk_check_flow_closer seq : Keepk (check_flow_closer (I:=I) seq).
Proof.
  intros s a s' HB. unfold check_flow_closer, bind, get.
  destruct (sc_ifms s) as [|st r]; [intros H; inversion H; subst; apply kpost_refl; auto|].
  cbv zeta. destruct (Bool.eqb _ _); [intros H; inversion H; subst; apply kpost_refl; auto|discriminate].
Qed.
Hint Resolve Keepk_check_flow_closer : kk.

Lemma Tr_fetch_flow_collection_end seq : Tr (SkP eqP) (fetch_flow_collection_end ops F seq) (fun _ => SkP eqP).
Proof.
  unfold fetch_flow_collection_end.
  trk. trk. eapply Tr_bind; [apply Tr_decrease|intro; cbv beta]. trk. trk.
  eapply Tr_bind; [apply Tr_pop_ifms|intro; cbv beta]. trk. trk. trk.
  eapply Tr_bind; [apply Tr_SkP_Keepk; apply Keepk_modify; intros s; destruct (_ <? _)%N; unfold vsame; cbn; auto 10|intro; cbv beta].
  trk.
  eapply Tr_conseq; [apply Tr_SkP_Keepk; kk|intros ? HH; exact HH|].
  intros _ s [HB (n0 & En & [HP|[E0 HP]])]; (split; [exact HB|]); unfold eqP in *; rewrite En; [lia|].
  rewrite E0. destruct n0; [reflexivity|discriminate].
Qed.

(* SkInv under frames and view-preserving updates (also before StreamStart) *)
Lemma SkInv_frame (s s' : st) : frame s s' -> SkInv s -> SkInv s'.
Proof.
  intros (F1 & F2 & F3 & _ & _ & F6 & _ & _ & _ & _ & F11) (I1 & I2 & I3). unfold SkInv.
  rewrite F1, F2, F3, F6. destruct F11 as [Fe|Fu]; cbn [fst snd] in *.
  - inversion Fe as [[E1 E2]]. rewrite E1, E2. auto.
  - pose proof (chain_unroll_nb _ _ I2) as C. rewrite <- Fu in C. cbn [fst snd] in C.
    split; [|split; [exact C|exact I3]].
    destruct (sc_stream_start s); [exact I1|]. destruct I1 as (A1 & A2 & A3). repeat split; auto.
    rewrite A3 in Fu. cbn in Fu. inversion Fu; reflexivity.
Qed.
Lemma SkInv_vsame (s s' : st) : vsame s s' -> SkInv s -> SkInv s'.
Proof. intros (V1 & V2 & V3 & V4 & V5 & V6). unfold SkInv. rewrite V1, V2, V3, V4, V5, V6. auto. Qed.

Lemma Tr_SkInv_Fr {A} (m : M A) : Fr m -> Tr SkInv m (fun _ => SkInv).
Proof. intros HF s a s' HI E. eapply SkInv_frame; eauto. Qed.

Lemma SkInv_SkP s : sc_stream_start s = true -> (SkInv s <-> SkP eqP s).
Proof. intros E. rewrite (SkInv_split _ E). unfold SkP, eqP. tauto. Qed.
Lemma SkP_SkInv s : SkP eqP s -> SkInv s.
Proof. intros H. apply SkInv_SkP; [apply H|exact H]. Qed.

Lemma Tr_fetch_stream_start : Tr (fun s => SkInv s /\ sc_stream_start s = false) (fetch_stream_start (I:=I)) (fun _ => SkInv).
Proof.
  intros s a s' [(I1 & I2 & I3) E]. unfold fetch_stream_start, bind, get, put. intros H; inversion H; subst.
  rewrite E in I1. destruct I1 as (A1 & A2 & A3). unfold SkInv; cbn. rewrite A1, A2, A3 in *. cbn. auto.
Qed.

Lemma Tr_stale_SkInv : Tr SkInv (@stale_simple_keys I) (fun _ => SkInv).
Proof.
  intros s a s' (I1 & I2 & I3). unfold stale_simple_keys, bind, get, put, fail.
  destruct (existsb _ _); [discriminate|]. intros H; inversion H; subst. unfold SkInv; cbn. rewrite map_length.
  split; [|auto]. destruct (sc_stream_start s); [exact I1|]. destruct I1 as (A1 & A2 & A3). rewrite A1. auto.
Qed.

(* what fetch_next_token does after StreamStart, up to the dispatch on the next character *)
Ltac trd :=
  repeat lazymatch goal with
  | |- Tr _ (bind _ _) _ => trk
  | |- Tr _ (if ?b then _ else _) _ => destruct b
  | |- Tr _ (fail _ _) _ => apply Tr_fail
  end.

Theorem fetch_next_token_SkInv : Tr SkInv (fetch_next_token ops F) (fun _ => SkInv).
Proof.
  rewrite fetch_next_token_shape.
  eapply Tr_bind; [apply Tr_SkInv_Fr; auto with fr|intro; cbv beta].
  apply Tr_get_bind. intros s0. destruct (sc_stream_start s0) eqn:ES; cbn [negb].
  2:{ eapply Tr_conseq; [apply Tr_fetch_stream_start| |auto]. intros s [H E]. subst s0. auto. }
  eapply Tr_conseq with (P' := SkP eqP) (Q' := fun _ => SkP eqP);
    [|intros s [H E]; subst s0; apply SkInv_SkP; auto|intros _ s; apply SkP_SkInv].
  trd.
  - apply Tr_SkP_Keepk, Keepk_fetch_stream_end.
  - apply Tr_SkP_Keepk, Keepk_fetch_directive.
  - apply Tr_SkP_Keepk, Keepk_fetch_document_indicator.
  - eapply Tr_bind; [apply Tr_SkP_Keepk, Keepk_fetch_document_indicator|intro; cbv beta]. trd; apply Tr_SkP_Keepk; kk.
  - apply dispatch_cases. intros [] _; cbn [run_dact].
    + apply Tr_fetch_flow_collection_start.
    + apply Tr_fetch_flow_collection_end.
    + apply Tr_SkP_Keepk, Keepk_fetch_flow_entry.
    + apply Tr_SkP_Keepk, Keepk_fetch_block_entry.
    + apply Tr_SkP_Keepk, Keepk_fetch_key.
    + apply Tr_SkP_Keepk, Keepk_fetch_value.
    + apply Tr_SkP_Keepk, Keepk_fetch_flow_value.
    + apply Tr_SkP_Keepk, Keepk_fetch_anchor.
    + apply Tr_SkP_Keepk, Keepk_fetch_tag.
    + apply Tr_SkP_Keepk, Keepk_fetch_block_scalar.
    + apply Tr_SkP_Keepk, Keepk_fetch_flow_scalar.
    + apply Tr_SkP_Keepk, Keepk_fetch_plain_scalar.
    + apply Tr_fail.
Qed.

Theorem fetch_more_tokens_SkInv fuel : Tr SkInv (fetch_more_tokens ops F fuel) (fun _ => SkInv).
Proof.
  induction fuel as [|fuel IH]; cbn [fetch_more_tokens]; [intros s a s' _ H; discriminate|].
  apply Tr_get_bind. intros s0.
  eapply Tr_bind with (R := fun _ => SkInv).
  - destruct (sc_tokens s0).
    + apply Tr_ret. intros s [H _]; exact H.
    + eapply Tr_bind with (R := fun _ => SkInv); [eapply Tr_conseq; [apply Tr_stale_SkInv|intros s [H _]; exact H|auto]|intro; cbv beta].
      apply Tr_get_bind. intros s1. apply Tr_ret. intros s [H _]; exact H.
  - intros need. destruct need.
    + eapply Tr_bind; [apply fetch_next_token_SkInv|intro; cbv beta; exact IH].
    + intros s a s' HI H. inversion H; subst. eapply SkInv_vsame; [|exact HI]. unfold vsame; cbn; auto 10.
Qed.

Theorem next_token_SkInv : Tr SkInv (next_token ops F) (fun _ => SkInv).
Proof.
  unfold next_token. apply Tr_get_bind. intros s0.
  destruct (sc_stream_end s0); [apply Tr_ret; intros s [H _]; exact H|].
  eapply Tr_bind with (R := fun _ => SkInv).
  - destruct (sc_token_available s0); [apply Tr_ret; intros s [H _]; exact H|].
    eapply Tr_conseq; [apply fetch_more_tokens_SkInv|intros s [H _]; exact H|auto].
  - intros _. apply Tr_get_bind. intros s1. destruct (sc_tokens s1) as [|t r]; [apply Tr_fail|].
    intros s a s' [HI ->]. unfold bind, put, modify, ret.
    destruct (snd t); intros H; inversion H; subst; (eapply SkInv_vsame; [|exact HI]); unfold vsame; cbn; auto 10.
Qed.

(* every state of a scan: the states the Scanner iterator goes through, from any input *)
Inductive reach : st -> Prop :=
| reach_init i : reach (init_sc i)
| reach_next s o s' : reach s -> next_token ops F s = Ok (o, s') -> reach s'.

Theorem reach_SkInv s : reach s -> SkInv s.
Proof. induction 1 as [i|s o s' _ IH E]; [apply SkInv_init|eapply next_token_SkInv; eauto]. Qed.

Corollary reach_no_flow_state_outside_flow s : reach s -> sc_flow_level s = 0%N -> sc_ifms s = [].
Proof. intros H. apply SkInv_ifms_nil, reach_SkInv, H. Qed.

(* k steps of fetch_next_token (for examples and for stating facts about intermediate states) *)
Fixpoint fetches (k : nat) (s : st) : option st :=
  match k with
  | O => Some s
  | S k => match fetch_next_token ops F s with Ok (_, s') => fetches k s' | _ => None end
  end.
Lemma fetches_SkInv k : forall s s', SkInv s -> fetches k s = Some s' -> SkInv s'.
Proof.
  induction k as [|k IH]; intros s s' HI; cbn [fetches]; [intros H; inversion H; subst; exact HI|].
  destruct (fetch_next_token ops F s) as [[a s1]| | |] eqn:E; try discriminate.
  apply IH. eapply fetch_next_token_SkInv; eauto.
Qed.

End FetchInv.

(* what a document marker leaves behind *)
Section Exact.
(* frames that moreover keep [sc_ska] and the line number: white space and comments up to the end of a line *)
Context {I : Type}.
Notation st := (sc I).
Notation M := (@M I).
Definition xframe (s s' : st) : Prop :=
  frame s s' /\ sc_ska s' = sc_ska s /\ m_line (sc_mark s') = m_line (sc_mark s).
Definition XFr {A} (m : M A) : Prop := forall s a s', m s = Ok (a, s') -> xframe s s'.
Lemma xframe_refl s : xframe s s.
Proof. split; [apply frame_refl|auto]. Qed.
Lemma xframe_trans s1 s2 s3 : xframe s1 s2 -> xframe s2 s3 -> xframe s1 s3.
Proof. intros (A & B & C) (D & E & G). split; [eapply frame_trans; eauto|split; congruence]. Qed.
Lemma xframe_inert : inert xframe.
Proof.
  split; [exact xframe_refl|exact xframe_trans|intros; split; [apply frame_set_in|cbn; auto]
         |intros; split; [apply frame_set_mark|cbn; auto]].
Qed.

Lemma XFr_bind {A B} (m : M A) (f : A -> M B) : XFr m -> (forall a, XFr (f a)) -> XFr (bind m f).
Proof. exact (Pres_bind xframe xframe_trans m f). Qed.
Lemma XFr_ret {A} (a : A) : XFr (ret a).
Proof. exact (Pres_ret xframe xframe_refl a). Qed.
Lemma XFr_fail {A} e mk : XFr (@fail I A e mk).
Proof. exact (Pres_fail xframe e mk). Qed.
Lemma XFr_mark : XFr (@mark I).
Proof. exact (Pres_mark xframe xframe_inert). Qed.
Lemma XFr_adv_mark n : XFr (@adv_mark I n).
Proof. exact (Pres_adv_mark xframe xframe_inert n). Qed.

Context (ops : InputOps I).
Lemma XFr_look_ch : XFr (look_ch ops).
Proof. exact (Pres_look_ch ops xframe xframe_inert). Qed.
Lemma XFr_in_skip : XFr (in_skip ops).
Proof. exact (Pres_in_skip ops xframe xframe_inert). Qed.
Lemma XFr_skip_blank : XFr (skip_blank ops).
Proof. exact (Pres_skip_blank ops xframe xframe_inert). Qed.
Lemma XFr_next_is p : XFr (next_is ops p).
Proof. exact (Pres_next_is ops xframe xframe_inert p). Qed.
Lemma XFr_in_skip_ws_to_eol fuel : forall stb tab ws n, XFr (in_skip_ws_to_eol ops fuel stb tab ws n).
Proof. exact (Pres_in_skip_ws_to_eol ops xframe xframe_inert fuel). Qed.
Lemma XFr_skip_ws_to_eol fuel stb : XFr (skip_ws_to_eol ops fuel stb).
Proof. exact (Pres_skip_ws_to_eol ops xframe xframe_inert fuel stb). Qed.
Lemma XFr_in_skip_while_non_breakz fuel : XFr (in_skip_while_non_breakz ops fuel).
Proof. exact (Pres_in_skip_while ops xframe xframe_inert fuel _). Qed.
End Exact.

Section Reset.
Context {I : Type} (ops : InputOps I).
Notation st := (sc I).
Notation M := (@M I).
Variable F : nat.

(* the configuration after a document marker *)
Definition marker_config (s : st) : Prop :=
  sc_stream_start s = true /\ sc_indent s = (-1)%Z /\ sc_indents s = [] /\ sc_flow_level s = 0%N /\ sc_ifms s = []
  /\ (exists k, sc_sks s = [k] /\ sk_possible k = false).

(* it is the configuration right after StreamStart *)
Lemma stream_start_config (i : I) s' :
  fetch_stream_start (init_sc i) = Ok (tt, s') -> marker_config s' /\ sc_ska s' = true.
Proof.
  unfold fetch_stream_start, bind, get, put. intros H; inversion H; subst. unfold marker_config; cbn.
  repeat split; auto. eexists; split; reflexivity.
Qed.

Lemma marker_config_SkInv s : marker_config s -> SkInv s.
Proof.
  intros (A1 & A2 & A3 & A4 & A5 & k & A6 & A7). unfold SkInv. rewrite A1, A2, A3, A4, A5, A6. cbn. auto.
Qed.

Lemma marker_config_xframe s s' : xframe s s' -> marker_config s -> marker_config s' /\ sc_ska s' = sc_ska s.
Proof.
  intros ((F1 & F2 & F3 & _ & _ & F6 & _ & _ & _ & _ & F11) & X1 & _) (A1 & A2 & A3 & A4 & A5 & A6).
  split; [|exact X1]. unfold marker_config. rewrite F1, F2, F3, F6.
  assert (E : (sc_indent s', sc_indents s') = ((-1)%Z, [])).
  { destruct F11 as [E|E]; rewrite E; cbn [fst snd]; rewrite A2, A3; reflexivity. }
  inversion E. auto 10.
Qed.

Lemma skip_n_non_blank_shape n (s : st) a s' :
  skip_n_non_blank ops n s = Ok (a, s') -> exists i m, s' = set_lws false (set_mark m (set_in i s)).
Proof.
  unfold skip_n_non_blank, bind, in_skip_n, adv_mark, modify.
  destruct (skip_n ops n (sc_in s)) as [i| | |]; try discriminate.
  intros H; inversion H; subst. eexists _, _. reflexivity.
Qed.

Definition block_ends (toks : list token) : Prop := Forall (fun t => snd t = TBlockEnd) toks.

(* (2) of the header: fetch_document_indicator at flow level 0 *)
Theorem fetch_document_indicator_resets t (s s' : st) :
  SkInv s -> sc_stream_start s = true -> sc_flow_level s = 0%N ->
  fetch_document_indicator ops t s = Ok (tt, s') ->
  marker_config s' /\ sc_ska s' = false
  /\ exists toks sp, sc_tokens s' = sc_tokens s ++ toks ++ [(sp, t)] /\ block_ends toks.
Proof.
  intros HI ES EF. pose proof (SkInv_ifms_nil _ HI EF) as EM.
  destruct HI as (I1 & I2 & I3). rewrite ES, EF in I1.
  unfold fetch_document_indicator.
  unfold bind at 1. destruct (unroll_indent (-1)%Z s) as [[[] s1]| | |] eqn:EU; try discriminate.
  unfold unroll_indent, bind, get in EU. rewrite EF in EU. cbn [N.ltb N.compare] in EU.
  apply unroll_indent_go_spec in EU; [|exact I2]. destruct EU as (ind & inds & toks & -> & C1 & C2 & C3).
  destruct (chain_bottom _ _ C1 C2) as [-> ->].
  unfold bind at 1. unfold remove_simple_key at 1, bind at 1, get at 1. cbn [sc_sks set_tokens set_indent set_struct upd].
  destruct (sc_sks s) as [|k [|k2 r]] eqn:EK; cbn in I1; try lia.
  destruct (sk_possible k && sk_required k); [discriminate|]. cbn [put].
  unfold bind at 1, disallow_simple_key at 1, modify at 1.
  unfold bind at 1, mark at 1, gets at 1.
  unfold bind at 1.
  match goal with |- context [skip_n_non_blank ops 3 ?x] => destruct (skip_n_non_blank ops 3 x) as [[[] s2]| | |] eqn:E2; try discriminate end.
  apply skip_n_non_blank_shape in E2. destruct E2 as (i & m & ->).
  unfold bind, mark, gets, push_tok, modify. intros H; inversion H; subst; clear H.
  unfold marker_config; cbn. rewrite ES, EF, EM. repeat split; auto.
  - eexists; split; reflexivity.
  - eexists toks, _. rewrite <- app_assoc. split; [reflexivity|exact C3].
Qed.

(* which tokens a step can put at the end of the queue *)
Definition is_marker (t : tok) : bool := match t with TDocumentStart | TDocumentEnd => true | _ => false end.
Definition last_tok (P : tok -> Prop) (s : st) : Prop := exists l sp tk, sc_tokens s = l ++ [(sp, tk)] /\ P tk.
Definition Ends {A} (P : tok -> Prop) (m : M A) : Prop := forall s a s', m s = Ok (a, s') -> last_tok P s'.
Definition Res {A} (R : A -> Prop) (m : M A) : Prop := forall s a s', m s = Ok (a, s') -> R a.

Lemma Res_bind {A B} R (m : M A) (f : A -> M B) : (forall a, Res R (f a)) -> Res R (bind m f).
Proof. intros Hf s b s' H. apply bind_inv in H. destruct H as (a & s1 & _ & H). exact (Hf a _ _ _ H). Qed.
Lemma Res_bind2 {A B} R' R (m : M A) (f : A -> M B) : Res R' m -> (forall a, R' a -> Res R (f a)) -> Res R (bind m f).
Proof.
  intros Hm Hf s b s' H. apply bind_inv in H. destruct H as (a & s1 & E & H). exact (Hf a (Hm _ _ _ E) _ _ _ H).
Qed.
Lemma Res_ret {A} (R : A -> Prop) a : R a -> Res R (@ret I A a).
Proof. intros H s a' s' E. inversion E; subst. exact H. Qed.
Lemma Res_fail {A} (R : A -> Prop) e mk : Res R (@fail I A e mk).
Proof. intros s a s' E. discriminate. Qed.
Lemma Res_oof {A} (R : A -> Prop) : Res R (@oof I A).
Proof. intros s a s' E. discriminate. Qed.

Lemma Ends_bind {A B} P (m : M A) (f : A -> M B) : (forall a, Ends P (f a)) -> Ends P (bind m f).
Proof. intros Hf s b s' H. apply bind_inv in H. destruct H as (a & s1 & _ & H). exact (Hf a _ _ _ H). Qed.
Lemma Ends_bind2 {A B} R P (m : M A) (f : A -> M B) : Res R m -> (forall a, R a -> Ends P (f a)) -> Ends P (bind m f).
Proof.
  intros Hm Hf s b s' H. apply bind_inv in H. destruct H as (a & s1 & E & H). exact (Hf a (Hm _ _ _ E) _ _ _ H).
Qed.
Lemma Ends_push_tok (P : tok -> Prop) t : P (snd t) -> Ends P (@push_tok I t).
Proof. intros H s a s' E. inversion E; subst. destruct t as [sp tk]. exists (sc_tokens s), sp, tk. cbn. auto. Qed.
Lemma Ends_fail {A} P e mk : Ends P (@fail I A e mk).
Proof. intros s a s' E. discriminate. Qed.

Definition nonmarker (t : tok) : Prop := is_marker t = false.
Definition tk_nonmarker (t : token) : Prop := is_marker (snd t) = false.

End Reset.

Ltac rs := walk ltac:(apply Res_bind) ltac:(first [apply Res_ret; reflexivity | apply Res_fail | apply Res_oof]).
Ltac en :=
  walk ltac:(first [eapply Ends_bind2; [solve [eauto with res]|] | apply Ends_bind])
       ltac:(first [apply Ends_push_tok; first [reflexivity|assumption] | apply Ends_fail]).

Section Marker.
Context {I : Type} (ops : InputOps I).
Notation st := (sc I).
Notation M := (@M I).
Variable F : nat.

Lemma Res_impl {A} (R R' : A -> Prop) (m : M A) : (forall a, R a -> R' a) -> Res R m -> Res R' m.
Proof. intros HR H s a s' E. apply HR, (H s a s' E). Qed.

(* the character-level scanners that produce a token return a leaf token *)
Lemma leaf_scan_tag : Res leaf (scan_tag ops F).
Proof. unfold scan_tag. rs. Qed.
Lemma leaf_scan_anchor alias : Res leaf (scan_anchor ops F alias).
Proof. unfold scan_anchor. destruct alias; rs. Qed.
Lemma leaf_scan_version_directive_value mk : Res leaf (scan_version_directive_value ops F mk).
Proof. unfold scan_version_directive_value. rs. Qed.
Lemma leaf_scan_tag_directive_value mk : Res leaf (scan_tag_directive_value ops F mk).
Proof. unfold scan_tag_directive_value. rs. Qed.
Lemma leaf_scan_directive : Res leaf (scan_directive ops F).
Proof.
  unfold scan_directive. apply Res_bind; intros start. apply Res_bind; intros _. apply Res_bind; intros name.
  (* the token is produced by the inner computation and returned after the line end has been consumed *)
  apply Res_bind2 with (R' := leaf).
  - destruct (str_eqb _ _); [apply leaf_scan_version_directive_value|].
    destruct (str_eqb _ _); [apply leaf_scan_tag_directive_value|]. rs.
  - intros tk Htk. rs. apply Res_ret. exact Htk.
Qed.
Lemma leaf_scan_flow_scalar single : Res leaf (scan_flow_scalar ops F single).
Proof. unfold scan_flow_scalar. rs. Qed.
Lemma leaf_scan_plain_scalar : Res leaf (scan_plain_scalar ops F).
Proof. unfold scan_plain_scalar. rs. Qed.
Lemma leaf_scan_block_scalar literal : Res leaf (scan_block_scalar ops F literal).
Proof. unfold scan_block_scalar. rs. Qed.

(* in particular, never a document marker *)
Lemma leaf_nonmarker t : leaf t -> tk_nonmarker t.
Proof. unfold leaf, tk_nonmarker. destruct (snd t); cbn; congruence. Qed.

Lemma Res_scan_directive : Res (@tk_nonmarker) (scan_directive ops F).
Proof. exact (Res_impl _ _ _ leaf_nonmarker leaf_scan_directive). Qed.
Lemma Res_scan_tag : Res (@tk_nonmarker) (scan_tag ops F).
Proof. exact (Res_impl _ _ _ leaf_nonmarker leaf_scan_tag). Qed.
Lemma Res_scan_anchor alias : Res (@tk_nonmarker) (scan_anchor ops F alias).
Proof. exact (Res_impl _ _ _ leaf_nonmarker (leaf_scan_anchor alias)). Qed.
Lemma Res_scan_flow_scalar single : Res (@tk_nonmarker) (scan_flow_scalar ops F single).
Proof. exact (Res_impl _ _ _ leaf_nonmarker (leaf_scan_flow_scalar single)). Qed.
Lemma Res_scan_plain_scalar : Res (@tk_nonmarker) (scan_plain_scalar ops F).
Proof. exact (Res_impl _ _ _ leaf_nonmarker leaf_scan_plain_scalar). Qed.
Lemma Res_scan_block_scalar literal : Res (@tk_nonmarker) (scan_block_scalar ops F literal).
Proof. exact (Res_impl _ _ _ leaf_nonmarker (leaf_scan_block_scalar literal)). Qed.

Hint Resolve Res_scan_directive Res_scan_tag Res_scan_anchor Res_scan_flow_scalar Res_scan_plain_scalar Res_scan_block_scalar : res.

Lemma Ends_fetch_stream_start : Ends nonmarker (fetch_stream_start (I:=I)).
Proof.
  intros s a s'. unfold fetch_stream_start, bind, get, put. intros H; inversion H; subst.
  eexists _, _, _. cbn. split; reflexivity.
Qed.
Lemma Ends_fetch_stream_end : Ends nonmarker (fetch_stream_end (I:=I)).
Proof. unfold fetch_stream_end. en. Qed.
Lemma Ends_fetch_directive : Ends nonmarker (fetch_directive ops F).
Proof. unfold fetch_directive. en. Qed.
Lemma Ends_fetch_tag : Ends nonmarker (fetch_tag ops F).
Proof. unfold fetch_tag. en. Qed.
Lemma Ends_fetch_anchor alias : Ends nonmarker (fetch_anchor ops F alias).
Proof. unfold fetch_anchor. en. Qed.
Lemma Ends_fetch_flow_collection_start seq : Ends nonmarker (fetch_flow_collection_start ops F seq).
Proof. unfold fetch_flow_collection_start. en. apply Ends_push_tok. destruct seq; reflexivity. Qed.
Lemma Ends_fetch_flow_collection_end seq : Ends nonmarker (fetch_flow_collection_end ops F seq).
Proof. unfold fetch_flow_collection_end. en; apply Ends_push_tok; destruct seq; reflexivity. Qed.
Lemma Ends_fetch_flow_entry : Ends nonmarker (fetch_flow_entry ops F).
Proof. unfold fetch_flow_entry. en. Qed.
Lemma Ends_fetch_block_entry : Ends nonmarker (fetch_block_entry ops F).
Proof. unfold fetch_block_entry. en. Qed.
Lemma Ends_fetch_block_scalar lit : Ends nonmarker (fetch_block_scalar ops F lit).
Proof. unfold fetch_block_scalar. en. Qed.
Lemma Ends_fetch_flow_scalar single : Ends nonmarker (fetch_flow_scalar ops F single).
Proof.
  unfold fetch_flow_scalar. en.
Qed.
Lemma Ends_fetch_plain_scalar : Ends nonmarker (fetch_plain_scalar ops F).
Proof. unfold fetch_plain_scalar. en. Qed.
Lemma Ends_fetch_key : Ends nonmarker (fetch_key ops F).
Proof. unfold fetch_key. en. Qed.
Lemma Ends_fetch_value : Ends nonmarker (fetch_value ops F).
Proof. unfold fetch_value. en. Qed.
Lemma Ends_fetch_flow_value : Ends nonmarker (fetch_flow_value ops F).
Proof. unfold fetch_flow_value. en. apply Ends_fetch_value. Qed.

(* the postcondition: a marker token at the end of the queue at flow level 0 means the marker configuration *)
Definition marker_post (s' : st) : Prop :=
  sc_flow_level s' = 0%N -> last_tok (fun tk => is_marker tk = true) s' -> marker_config s' /\ sc_ska s' = false.

Lemma last_tok_unique (P Q : tok -> Prop) (s : st) : last_tok P s -> last_tok Q s -> exists tk, P tk /\ Q tk.
Proof.
  intros (l & sp & tk & E & H) (l' & sp' & tk' & E' & H'). rewrite E in E'. apply app_inj_tail in E'.
  destruct E' as [_ E']. inversion E'; subst. eauto.
Qed.

Lemma Tr_Ends {A} P (m : M A) : Ends nonmarker m -> Tr P m (fun _ => marker_post).
Proof.
  intros HE s a s' _ E _ HL. destruct (last_tok_unique _ _ _ (HE _ _ _ E) HL) as (tk & H1 & H2).
  unfold nonmarker in H1. congruence.
Qed.

Lemma Tr_marker_start : Tr (SkP eqP) (fetch_document_indicator ops TDocumentStart) (fun _ => marker_post).
Proof.
  intros s a s' HP E EF _. pose proof (Keepk_fetch_document_indicator ops _ _ _ _ (proj1 HP) E) as (_ & EF' & _).
  destruct a. apply (fetch_document_indicator_resets ops) in E; [tauto|apply SkP_SkInv; exact HP|apply HP|congruence].
Qed.

Lemma Tr_marker_end :
  Tr (SkP eqP)
     (bind (fetch_document_indicator ops TDocumentEnd) (fun _ => bind (skip_ws_to_eol ops F SkipYes) (fun _ =>
        bind (next_is ops is_breakz) (fun b => if b then ret tt else bind mark (fun m => fail 101 m)))))
     (fun _ => marker_post).
Proof.
  intros s a s' HP. unfold bind at 1.
  destruct (fetch_document_indicator ops TDocumentEnd s) as [[[] s1]| | |] eqn:E1; try discriminate.
  pose proof (Keepk_fetch_document_indicator ops _ _ _ _ (proj1 HP) E1) as (_ & EF1 & _).
  intros E2 EF _.
  assert (X : xframe s1 s').
  { revert E2. apply (XFr_bind (skip_ws_to_eol ops F SkipYes)); [apply XFr_skip_ws_to_eol|intro].
    apply XFr_bind; [apply XFr_next_is|intro b]. destruct b; [apply XFr_ret|]. apply XFr_bind; [apply XFr_mark|intro; apply XFr_fail]. }
  assert (EF0 : sc_flow_level s = 0%N).
  { destruct X as ((_ & F2 & _) & _). congruence. }
  apply (fetch_document_indicator_resets ops) in E1; [|apply SkP_SkInv; exact HP|apply HP|exact EF0].
  destruct E1 as (C & K & _). destruct (marker_config_xframe _ _ X C) as [C' K']. split; [exact C'|congruence].
Qed.

(* (2) for whole steps: whenever fetch_next_token queues a document marker outside flow collections, the skeleton is
   the marker configuration — whatever the earlier documents contained *)
Theorem fetch_next_token_marker : Tr SkInv (fetch_next_token ops F) (fun _ => marker_post).
Proof.
  rewrite fetch_next_token_shape.
  eapply Tr_bind; [apply Tr_SkInv_Fr; auto with fr|intro; cbv beta].
  apply Tr_get_bind. intros s0. destruct (sc_stream_start s0) eqn:ES; cbn [negb].
  2:{ apply Tr_Ends. apply Ends_fetch_stream_start. }
  eapply Tr_conseq with (P' := SkP eqP) (Q' := fun _ => marker_post);
    [|intros s [H E]; subst s0; apply SkInv_SkP; auto|auto].
  repeat lazymatch goal with
  | |- Tr _ (bind (fetch_document_indicator _ _) _) _ => fail
  | |- Tr _ (bind _ _) _ => eapply Tr_bind; [apply Tr_SkP_Keepk; solve [kk]|intro; cbv beta]
  | |- Tr _ (if ?b then _ else _) _ => destruct b
  | |- Tr _ (fail _ _) _ => apply Tr_fail
  end.
  - apply Tr_Ends, Ends_fetch_stream_end.
  - apply Tr_Ends, Ends_fetch_directive.
  - apply Tr_marker_start.
  - apply Tr_marker_end.
  - apply dispatch_cases. intros [] _; cbn [run_dact].
    + apply Tr_Ends, Ends_fetch_flow_collection_start.
    + apply Tr_Ends, Ends_fetch_flow_collection_end.
    + apply Tr_Ends, Ends_fetch_flow_entry.
    + apply Tr_Ends, Ends_fetch_block_entry.
    + apply Tr_Ends, Ends_fetch_key.
    + apply Tr_Ends, Ends_fetch_value.
    + apply Tr_Ends, Ends_fetch_flow_value.
    + apply Tr_Ends, Ends_fetch_anchor.
    + apply Tr_Ends, Ends_fetch_tag.
    + apply Tr_Ends, Ends_fetch_block_scalar.
    + apply Tr_Ends, Ends_fetch_flow_scalar.
    + apply Tr_Ends, Ends_fetch_plain_scalar.
    + apply Tr_fail.
Qed.

(* ---- after the line break that follows the marker line, simple keys are allowed again: the skeleton is then
        exactly the one the scanner had after StreamStart ---- *)
Lemma skip_to_next_token_newline fuel : forall (s s' : st),
  sc_flow_level s = 0%N -> skip_to_next_token ops fuel s = Ok (tt, s') ->
  sc_ska s' = true \/ (sc_ska s' = sc_ska s /\ m_line (sc_mark s') = m_line (sc_mark s)).
Proof.
  induction fuel as [|fuel IH]; intros s s' EF; cbn [skip_to_next_token]; [discriminate|].
  unfold bind at 1. destruct (look_ch ops s) as [[c s1]| | |] eqn:E1; try discriminate.
  pose proof (XFr_look_ch ops _ _ _ E1) as X1.
  assert (EF1 : sc_flow_level s1 = 0%N) by (destruct X1 as ((_ & F2 & _) & _); congruence).
  unfold bind at 1, get at 1. unfold bind at 1, is_within_block at 1, gets at 1.
  assert (G : forall s2, xframe s1 s2 -> skip_to_next_token ops fuel s2 = Ok (tt, s') ->
              sc_ska s' = true \/ (sc_ska s' = sc_ska s /\ m_line (sc_mark s') = m_line (sc_mark s))).
  { intros s2 X2 E. pose proof (xframe_trans _ _ _ X1 X2) as (( _ & F2 & _) & K & L).
    apply IH in E; [|congruence]. destruct E as [E|[Ea Eb]]; [left; exact E|right; split; congruence]. }
  destruct (_ && _ && _ && _).
  - unfold bind at 1. destruct (skip_ws_to_eol ops (S fuel) SkipYes s1) as [[tw s2]| | |] eqn:E2; try discriminate.
    pose proof (XFr_skip_ws_to_eol ops _ _ _ _ _ E2) as X2.
    unfold bind at 1. destruct (next_is ops is_breakz s2) as [[b s3]| | |] eqn:E3; try discriminate.
    pose proof (XFr_next_is ops _ _ _ _ E3) as X3.
    destruct b; [|unfold bind, mark, gets, fail; discriminate].
    apply G. eapply xframe_trans; eauto.
  - destruct ((c =? 9)%N || (c =? 32)%N).
    + unfold bind at 1. destruct (skip_blank ops s1) as [[[] s2]| | |] eqn:E2; try discriminate.
      apply G. eapply XFr_skip_blank; eauto.
    + destruct ((c =? 10)%N || (c =? 13)%N).
      * (* a line break at flow level 0: simple keys become allowed and stay so *)
        unfold bind at 1. destruct (look ops 2 s1) as [[[] s2]| | |] eqn:E2; try discriminate.
        unfold bind at 1. destruct (skip_linebreak ops s2) as [[[] s3]| | |] eqn:E3; try discriminate.
        pose proof (Fr_look ops _ _ _ _ E2) as (_ & G2 & _). pose proof (Fr_skip_linebreak ops _ _ _ E3) as (_ & G3 & _).
        unfold bind at 1, flow_level at 1, gets at 1.
        replace (sc_flow_level s3) with 0%N by congruence. cbn [N.eqb].
        unfold bind at 1, allow_simple_key at 1, modify at 1. intros E4. left.
        pose proof (Fr_skip_to_next_token ops _ _ _ _ E4) as (_ & _ & _ & _ & _ & _ & _ & _ & _ & K & _).
        apply K. reflexivity.
      * destruct (c =? 35)%N.
        -- unfold bind at 1. destruct (in_skip_while_non_breakz ops (S fuel) s1) as [[n s2]| | |] eqn:E2; try discriminate.
           pose proof (XFr_in_skip_while_non_breakz ops _ _ _ _ E2) as X2.
           unfold bind at 1, adv_mark at 1, modify at 1. apply G.
           eapply xframe_trans; [exact X2|]. eapply (XFr_adv_mark n); reflexivity.
        -- unfold ret. intros H; inversion H; subst. right. destruct X1 as (_ & K & L). auto.
Qed.

Theorem marker_then_newline fuel (s s' : st) :
  marker_config s -> skip_to_next_token ops fuel s = Ok (tt, s') ->
  m_line (sc_mark s') <> m_line (sc_mark s) ->
  marker_config s' /\ sc_ska s' = true.
Proof.
  intros C E NL. pose proof C as (_ & _ & _ & EF & _).
  destruct (skip_to_next_token_newline _ _ _ EF E) as [K|[_ L]]; [|congruence].
  split; [|exact K].
  pose proof (Fr_skip_to_next_token ops _ _ _ _ E) as (F1 & F2 & F3 & _ & _ & F6 & _ & _ & _ & _ & F11).
  destruct C as (A1 & A2 & A3 & A4 & A5 & A6). unfold marker_config. rewrite F1, F2, F3, F6.
  assert (E' : (sc_indent s', sc_indents s') = ((-1)%Z, [])).
  { destruct F11 as [E'|E']; rewrite E'; cbn [fst snd]; rewrite A2, A3; reflexivity. }
  inversion E'. auto 10.
Qed.

End Marker.
