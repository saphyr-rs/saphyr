(* C10, value level: the scanner model over the BUFFERED input (any capacity >= 8) and over the STRING input compute
   the same thing.  Relational weakest-precondition calculus [rwp]: the two runs are related when both end properly
   (a value or an error) - then the values/states satisfy the postcondition, or the errors are the same error at the
   same marker.  A run that ends in OutOfFuel (either side) or Panic (either side) is not this proof's concern:
   fuel is partial correctness here, and the buffered side is proved panic-free separately (ScanSafeTop.v).
   [rwp] is the non-strict reading [ScanPair.rwpG false N0] (any N0) of the calculus of ScanPair.v ([rwp_pair]); the
   rules and the walk through the scanner are those of ScanPair*.v, the assembly is ScanRelTop.v. *)
From Coq Require Import List NArith ZArith Bool Arith Lia.
Import ListNotations.
Require Import Parser SBase SPrim SDir SScalar SFetch SBuf InputRefine.
Require ScanPair.
Local Open Scope nat_scope.

Notation st1 := (sc strin).
Notation st2 := (sc bufin).
Notation M1 := (@M strin).
Notation M2 := (@M bufin).

(* everything but the input *)
Definition erase {I} (s : sc I) : sc unit :=
  {| sc_in := tt; sc_mark := sc_mark s; sc_tokens := sc_tokens s;
     sc_stream_start := sc_stream_start s; sc_stream_end := sc_stream_end s; sc_adjacent := sc_adjacent s;
     sc_ska := sc_ska s; sc_sks := sc_sks s; sc_indent := sc_indent s; sc_indents := sc_indents s;
     sc_flow_level := sc_flow_level s; sc_tokens_parsed := sc_tokens_parsed s;
     sc_token_available := sc_token_available s; sc_lws := sc_lws s; sc_ifms := sc_ifms s |}.

(* the state relation: same skeleton, and the buffered input holds exactly the string input's remaining characters *)
Definition SR (s1 : st1) (s2 : st2) : Prop := Rel (sc_in s1) (sc_in s2) /\ erase s1 = erase s2.

Definition bl2 (s : st2) : nat := length (b_buf (sc_in s)).
Definition rem1 (s : st1) : list chr := si_chars (sc_in s).
Definition rn1 (s : st1) (i : nat) : chr := nth i (rem1 s) 0%N.

Lemma erase_fields {I J} (s : sc I) (t : sc J) : erase s = erase t ->
  sc_mark s = sc_mark t /\ sc_tokens s = sc_tokens t /\ sc_stream_start s = sc_stream_start t
  /\ sc_stream_end s = sc_stream_end t /\ sc_adjacent s = sc_adjacent t /\ sc_ska s = sc_ska t
  /\ sc_sks s = sc_sks t /\ sc_indent s = sc_indent t /\ sc_indents s = sc_indents t
  /\ sc_flow_level s = sc_flow_level t /\ sc_tokens_parsed s = sc_tokens_parsed t
  /\ sc_token_available s = sc_token_available t /\ sc_lws s = sc_lws t
  /\ sc_ifms s = sc_ifms t.
Proof. exact (ScanPair.erase_fields s t). Qed.

Lemma erase_set_in {I} (i : I) (s : sc I) : erase (set_in i s) = erase s.
Proof. reflexivity. Qed.

Section RelCalc.
Variable cap : nat.
Hypothesis cap_ge : 8 <= cap.
Notation sops := str_ops.
Notation bops := (buf_ops cap).

Definition rwp {A1 A2} (m1 : M1 A1) (m2 : M2 A2) (Q : A1 -> st1 -> A2 -> st2 -> Prop) (s1 : st1) (s2 : st2) : Prop :=
  match m2 s2 with
  | Panic _ => True
  | OutOfFuel => True
  | Ok (a2, t2) => match m1 s1 with
                   | Ok (a1, t1) => Q a1 t1 a2 t2
                   | Err _ _ => False
                   | _ => True
                   end
  | Err e2 k2 => match m1 s1 with
                 | Err e1 k1 => e1 = e2 /\ k1 = k2
                 | Ok _ => False
                 | _ => True
                 end
  end.

(* the usual shape of a postcondition: equal values *)
Definition Qe {A} (P : A -> st1 -> st2 -> Prop) : A -> st1 -> A -> st2 -> Prop :=
  fun a1 t1 a2 t2 => a1 = a2 /\ P a1 t1 t2.

Lemma rwp_pair N0 {A1 A2} (m1 : M1 A1) (m2 : M2 A2) (Q : A1 -> st1 -> A2 -> st2 -> Prop) s1 s2 :
  ScanPair.rwpG false N0 m1 m2 Q s1 s2 <-> rwp m1 m2 Q s1 s2.
Proof.
  unfold rwp, ScanPair.rwpG, ScanPair.bounded, ScanPair.oof_r.
  destruct (m1 s1) as [[a1 t1]|e1 k1|n1|]; destruct (m2 s2) as [[a2 t2]|e2 k2|n2|]; tauto.
Qed.

(* unfolding: what a related pair of proper results means *)
Lemma rwp_elim {A1 A2} (m1 : M1 A1) (m2 : M2 A2) (Q : A1 -> st1 -> A2 -> st2 -> Prop) s1 s2 : rwp m1 m2 Q s1 s2 ->
  match m1 s1, m2 s2 with
  | Ok (a1, t1), Ok (a2, t2) => Q a1 t1 a2 t2
  | Err e1 k1, Err e2 k2 => e1 = e2 /\ k1 = k2
  | Ok _, Err _ _ => False
  | Err _ _, Ok _ => False
  | _, _ => True
  end.
Proof.
  unfold rwp. destruct (m2 s2) as [[a2 t2]|e2 k2|n2|]; destruct (m1 s1) as [[a1 t1]|e1 k1|n1|]; auto.
Qed.

(* the state relation under skeleton updates *)
Lemma SR_mark s1 s2 : SR s1 s2 -> sc_mark s1 = sc_mark s2.
Proof. exact (ScanPair.SR_mark s1 s2). Qed.
Lemma SR_rel s1 s2 : SR s1 s2 -> Rel (sc_in s1) (sc_in s2).
Proof. exact (ScanPair.SR_rel s1 s2). Qed.
Lemma SR_erase s1 s2 : SR s1 s2 -> erase s1 = erase s2.
Proof. exact (ScanPair.SR_erase s1 s2). Qed.
Lemma SR_intro s1 s2 : Rel (sc_in s1) (sc_in s2) -> erase s1 = erase s2 -> SR s1 s2.
Proof. exact (ScanPair.SR_intro s1 s2). Qed.

(* generic: both sides apply "the same" skeleton function, described on erased states *)
Lemma SR_lift (g : sc unit -> sc unit) (f1 : st1 -> st1) (f2 : st2 -> st2) s1 s2 :
  SR s1 s2 ->
  sc_in (f1 s1) = sc_in s1 -> sc_in (f2 s2) = sc_in s2 ->
  erase (f1 s1) = g (erase s1) -> erase (f2 s2) = g (erase s2) -> SR (f1 s1) (f2 s2).
Proof. exact (ScanPair.SR_lift g f1 f2 s1 s2). Qed.

(* the ONE place where the two sides see different values: the buffered length *)
Lemma rwp_buf_is_empty (Q : bool -> st1 -> bool -> st2 -> Prop) s1 s2 :
  Q (Nat.eqb (si_look (sc_in s1)) 0) s1 (Nat.eqb (bl2 s2) 0) s2 -> rwp (buf_is_empty sops) (buf_is_empty bops) Q s1 s2.
Proof. intros H. apply (rwp_pair 0). exact (ScanPair.rwp_buf_is_empty cap false 0 Q s1 s2 H). Qed.

(* ---------------- contracts ----------------
   [rpost k]: equal values, related states, at least k characters buffered on the buffered side. *)
Definition rpost {A} (k : nat) : A -> st1 -> A -> st2 -> Prop := Qe (fun _ t1 t2 => SR t1 t2 /\ k <= bl2 t2).

Definition rel_scan_directive : Prop := forall F s1 s2, SR s1 s2 -> 1 <= bl2 s2 ->
  rwp (scan_directive sops F) (scan_directive bops F) (rpost 0) s1 s2.
Definition rel_scan_tag : Prop := forall F s1 s2, SR s1 s2 ->
  rwp (scan_tag sops F) (scan_tag bops F) (rpost 0) s1 s2.
Definition rel_scan_anchor : Prop := forall F alias s1 s2, SR s1 s2 -> 1 <= bl2 s2 ->
  rwp (scan_anchor sops F alias) (scan_anchor bops F alias) (rpost 0) s1 s2.
Definition rel_scan_flow_scalar : Prop := forall F single s1 s2, SR s1 s2 -> 1 <= bl2 s2 ->
  rwp (scan_flow_scalar sops F single) (scan_flow_scalar bops F single) (rpost 0) s1 s2.
Definition rel_scan_plain_scalar : Prop := forall F s1 s2, SR s1 s2 ->
  rwp (scan_plain_scalar sops F) (scan_plain_scalar bops F) (rpost 0) s1 s2.
Definition rel_scan_block_scalar : Prop := forall F literal s1 s2, SR s1 s2 -> 1 <= bl2 s2 ->
  rwp (scan_block_scalar sops F literal) (scan_block_scalar bops F literal) (rpost 0) s1 s2.

(* each is the non-strict reading of the contract of ScanPair.v, whatever the bound *)
Lemma rel_scan_directive_pair N0 : rel_scan_directive <-> ScanPair.rel_scan_directive cap false N0.
Proof. split; intros H F s1 s2 HS HB; apply (rwp_pair N0); exact (H F s1 s2 HS HB). Qed.
Lemma rel_scan_tag_pair N0 : rel_scan_tag <-> ScanPair.rel_scan_tag cap false N0.
Proof. split; intros H F s1 s2 HS; apply (rwp_pair N0); exact (H F s1 s2 HS). Qed.
Lemma rel_scan_anchor_pair N0 : rel_scan_anchor <-> ScanPair.rel_scan_anchor cap false N0.
Proof. split; intros H F alias s1 s2 HS HB; apply (rwp_pair N0); exact (H F alias s1 s2 HS HB). Qed.
Lemma rel_scan_flow_scalar_pair N0 : rel_scan_flow_scalar <-> ScanPair.rel_scan_flow_scalar cap false N0.
Proof. split; intros H F single s1 s2 HS HB; apply (rwp_pair N0); exact (H F single s1 s2 HS HB). Qed.
Lemma rel_scan_plain_scalar_pair N0 : rel_scan_plain_scalar <-> ScanPair.rel_scan_plain_scalar cap false N0.
Proof.
  split; [intros H F s1 s2 _ HS; apply (rwp_pair N0); exact (H F s1 s2 HS)|].
  intros H F s1 s2 HS. apply (rwp_pair N0). apply H; [discriminate|exact HS].
Qed.
Lemma rel_scan_block_scalar_pair N0 : rel_scan_block_scalar <-> ScanPair.rel_scan_block_scalar cap false N0.
Proof.
  split; [intros H F literal s1 s2 _ HS HB; apply (rwp_pair N0); exact (H F literal s1 s2 HS HB)|].
  intros H F literal s1 s2 HS HB. apply (rwp_pair N0). apply H; [discriminate|exact HS|exact HB].
Qed.

End RelCalc.
