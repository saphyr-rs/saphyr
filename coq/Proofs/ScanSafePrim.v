(* Joint proof "the scanner never panics on a buffered input" (see SCANSAFE.md): the whitespace / comment skipping
   family of Model/SPrim.v.  Reusable [wp] rules for the character loops ([in_skip_ws_to_eol], [in_skip_while*],
   [in_fetch_while_alpha]) and the flag accessors, then the three contracts
     safe_skip_ws_to_eol, safe_skip_to_next_token, safe_skip_yaml_whitespace. *)
From Coq Require Import List NArith ZArith Bool Arith Lia.
Import ListNotations.
Require Import Parser SBase SPrim SDir SScalar SFetch SBuf ScanWP.
Local Open Scope nat_scope.

Arguments Nat.ltb : simpl never.
Arguments Nat.leb : simpl never.
Arguments Nat.eqb : simpl never.
Arguments Nat.sub : simpl never.

Local Notation st := (sc bufin).
Local Notation M := (@M bufin).

(* an input operation leaves the mark and every flag alone (stronger than [keeps], which forgets them) *)
Lemma sbi_fields (s s' : st) : same_but_input s s' ->
  sc_mark s' = sc_mark s /\ sc_ska s' = sc_ska s /\ sc_lws s' = sc_lws s /\ sc_adjacent s' = sc_adjacent s
  /\ sc_token_available s' = sc_token_available s /\ sc_indent s' = sc_indent s /\ sc_indents s' = sc_indents s.
Proof. unfold same_but_input. intros ->. cbn. repeat split. Qed.

(* flag accessors: only flags are touched *)
Lemma keeps_set_ska b (s : st) : keeps s (set_ska b s).
Proof. unfold keeps; cbn; repeat split; auto. Qed.

Lemma wp_allow_simple_key (Q : unit -> st -> Prop) s :
  (forall s', keeps s s' -> bl s' = bl s -> (forall i, bnth s' i = bnth s i) -> Q tt s') -> wp allow_simple_key Q s.
Proof.
  intros HQ. unfold allow_simple_key. apply wp_modify. apply HQ; [apply keeps_set_ska|reflexivity|reflexivity].
Qed.
Lemma wp_disallow_simple_key (Q : unit -> st -> Prop) s :
  (forall s', keeps s s' -> bl s' = bl s -> (forall i, bnth s' i = bnth s i) -> Q tt s') -> wp disallow_simple_key Q s.
Proof.
  intros HQ. unfold disallow_simple_key. apply wp_modify. apply HQ; [apply keeps_set_ska|reflexivity|reflexivity].
Qed.
Lemma wp_flow_level (Q : N -> st -> Prop) s : Q (sc_flow_level s) s -> wp flow_level Q s.
Proof. auto. Qed.
Lemma wp_in_flow (Q : bool -> st -> Prop) s : Q (0 <? sc_flow_level s)%N s -> wp in_flow Q s.
Proof. auto. Qed.
Lemma wp_is_within_block (Q : bool -> st -> Prop) s :
  Q (match sc_indents s with [] => false | _ => true end) s -> wp is_within_block Q s.
Proof. auto. Qed.

Section SafePrim.
Variable cap : nat.
Hypothesis cap_ge : 8 <= cap.
Notation bops := (bops cap).

(* ---------------- in_skip_while / in_fetch_while_alpha ----------------
   The loops end with a [look_ch]: at exit one character is buffered and it fails the predicate.  The [_buf] rules
   say that much; the rules without suffix add [keeps], which is [wp_keeps] at the loop's frame lemma. *)
Lemma wp_in_skip_while_buf F p (Q : N -> st -> Prop) s :
  (forall k s', 1 <= bl s' -> p (bnth s' 0) = false -> Q k s') -> wp (in_skip_while bops F p) Q s.
Proof.
  intros HQ. unfold in_skip_while. generalize 0%N. revert s.
  induction F as [|f IHf]; intros s k; [exact I|].
  apply wp_bind. apply (wp_look_ch_val cap cap_ge). intros s1 _ B1 _ _.
  destruct (p (bnth s1 0)) eqn:E.
  - apply wp_bind. apply (wp_in_skip cap cap_ge). intros s2 _ _. apply IHf.
  - apply wp_ret. apply HQ; [exact B1|exact E].
Qed.
Lemma wp_in_skip_while F p (Q : N -> st -> Prop) s :
  (forall k s', keeps s s' -> 1 <= bl s' -> p (bnth s' 0) = false -> Q k s') ->
  wp (in_skip_while bops F p) Q s.
Proof.
  intros HQ. apply wp_keeps; [apply ScanFrame.Fr_in_skip_while|]. apply wp_in_skip_while_buf.
  intros k s' B E K. apply HQ; assumption.
Qed.

Lemma wp_in_skip_while_non_breakz_buf F (Q : N -> st -> Prop) s :
  (forall k s', 1 <= bl s' -> is_breakz (bnth s' 0) = true -> Q k s') -> wp (in_skip_while_non_breakz bops F) Q s.
Proof.
  intros HQ. unfold in_skip_while_non_breakz. apply wp_in_skip_while_buf. intros k s' B E.
  apply HQ; [exact B|apply negb_false_iff; exact E].
Qed.
Lemma wp_in_skip_while_blank_buf F (Q : N -> st -> Prop) s :
  (forall k s', 1 <= bl s' -> is_blank (bnth s' 0) = false -> Q k s') -> wp (in_skip_while_blank bops F) Q s.
Proof. exact (wp_in_skip_while_buf F is_blank Q s). Qed.
Lemma wp_in_skip_while_blank F (Q : N -> st -> Prop) s :
  (forall k s', keeps s s' -> 1 <= bl s' -> is_blank (bnth s' 0) = false -> Q k s') ->
  wp (in_skip_while_blank bops F) Q s.
Proof. exact (wp_in_skip_while F is_blank Q s). Qed.

Lemma wp_in_fetch_while_alpha_buf F acc (Q : list chr * N -> st -> Prop) s :
  (forall r s', 1 <= bl s' -> is_alpha (bnth s' 0) = false -> Q r s') -> wp (in_fetch_while_alpha bops F acc) Q s.
Proof.
  intros HQ. unfold in_fetch_while_alpha. generalize 0%N. revert s acc.
  induction F as [|f IHf]; intros s acc k; [exact I|].
  apply wp_bind. apply (wp_look_ch_val cap cap_ge). intros s1 _ B1 _ _.
  destruct (is_alpha (bnth s1 0)) eqn:E.
  - apply wp_bind. apply (wp_in_skip cap cap_ge). intros s2 _ _. apply IHf.
  - apply wp_ret. apply HQ; [exact B1|exact E].
Qed.
Lemma wp_in_fetch_while_alpha F acc (Q : list chr * N -> st -> Prop) s :
  (forall r s', keeps s s' -> 1 <= bl s' -> is_alpha (bnth s' 0) = false -> Q r s') ->
  wp (in_fetch_while_alpha bops F acc) Q s.
Proof.
  intros HQ. apply wp_keeps; [apply ScanFrame.Fr_in_fetch_while_alpha|]. apply wp_in_fetch_while_alpha_buf.
  intros r s' B E K. apply HQ; assumption.
Qed.

(* in_skip_ws_to_eol (with its nested comment loop) *)
Lemma wp_in_skip_ws_to_eol_buf F stb (Q : N * option (bool * bool) -> st -> Prop) :
  (forall r s', 1 <= bl s' -> Q r s') -> forall tab ws n s, wp (in_skip_ws_to_eol bops F stb tab ws n) Q s.
Proof.
  intros HQ. induction F as [|F IHF]; intros tab ws n s; [exact I|].
  cbn [in_skip_ws_to_eol].
  apply wp_bind. apply (wp_look_ch cap cap_ge). intros c s1 _ B1 _.
  destruct (c =? 32)%N.
  { apply wp_bind. apply (wp_in_skip cap cap_ge). intros s2 _ _. apply IHF. }
  dif.
  { apply wp_bind. apply (wp_in_skip cap cap_ge). intros s2 _ _. apply IHF. }
  destruct (c =? 35)%N; [|apply wp_ret; apply HQ; exact B1].
  destruct (negb tab && negb ws); [apply wp_ret; apply HQ; exact B1|].
  apply wp_bind. apply (wp_in_skip cap cap_ge). intros s2 _ _.
  match goal with |- wp (?L F n) _ _ => assert (HL : forall f k s3, wp (L f k) Q s3) end; [|apply HL].
  induction f as [|f IHf]; intros k s3; [exact I|].
  apply wp_bind. apply (wp_look_ch cap cap_ge). intros c' s4 _ _ _.
  destruct (is_breakz c').
  - apply IHF.
  - apply wp_bind. apply (wp_in_skip cap cap_ge). intros s5 _ _. apply IHf.
Qed.

(* the contracts *)
Theorem safe_skip_ws_to_eol : spec_skip_ws_to_eol cap.
Proof.
  intros F stb s. apply wp_post_keeps; [apply ScanFrame.Fr_skip_ws_to_eol|]. unfold skip_ws_to_eol.
  apply wp_bind. apply wp_in_skip_ws_to_eol_buf. intros r s1 B1.
  apply wp_bind. apply wp_adv_mark. intros s2 _ B2.
  destruct (snd r) as [tw|].
  - apply wp_ret. lia.
  - apply wp_bind. apply wp_mark. apply wp_fail.
Qed.

Theorem safe_skip_to_next_token : spec_skip_to_next_token cap.
Proof.
  intros F s. apply wp_post_keeps; [apply ScanFrame.Fr_skip_to_next_token|]. revert s.
  induction F as [|F IHF]; intros s; [exact I|].
  cbn [skip_to_next_token].
  apply wp_bind. apply (wp_look_ch cap cap_ge). intros c s1 _ B1 _.
  apply wp_bind. apply wp_get. apply wp_bind. apply wp_is_within_block. cbv beta.
  dif.
  { apply wp_bind. eapply wp_mono; [apply safe_skip_ws_to_eol|]. intros tw s2 [_ B2].
    apply wp_bind. apply (wp_next_is cap cap_ge); [exact B2|]. intros b. destruct b.
    - apply IHF.
    - apply wp_bind. apply wp_mark. apply wp_fail. }
  dif.
  { apply wp_bind. apply (wp_skip_blank cap cap_ge). intros s2 _ _. apply IHF. }
  dif.
  { apply wp_bind. apply (wp_look cap cap_ge); [lia|]. intros s2 _ B2 _ _.
    apply wp_bind. apply (wp_skip_linebreak cap cap_ge); [exact B2|]. intros s3 _ _.
    apply wp_bind. apply wp_flow_level. cbv beta.
    apply wp_bind. destruct (sc_flow_level s3 =? 0)%N.
    - apply wp_allow_simple_key. intros s4 _ _ _. apply IHF.
    - apply wp_ret. apply IHF. }
  dif.
  { apply wp_bind. apply wp_in_skip_while_non_breakz_buf. intros n s2 _ _.
    apply wp_bind. apply wp_adv_mark. intros s3 _ _. apply IHF. }
  apply wp_ret. exact B1.
Qed.

Theorem safe_skip_yaml_whitespace : spec_skip_yaml_whitespace cap.
Proof.
  intros F s. apply wp_post_keeps; [apply ScanFrame.Fr_skip_yaml_whitespace|]. unfold skip_yaml_whitespace.
  generalize true. generalize F at 2. intros f. revert s.
  induction f as [|f IHf]; intros s need; [exact I|].
  apply wp_bind. apply (wp_look_ch cap cap_ge). intros c s1 _ B1 _.
  destruct (c =? 32)%N.
  { apply wp_bind. apply (wp_skip_blank cap cap_ge). intros s2 _ _. apply IHf. }
  dif.
  { apply wp_bind. apply (wp_look cap cap_ge); [lia|]. intros s2 _ B2 _ _.
    apply wp_bind. apply (wp_skip_linebreak cap cap_ge); [exact B2|]. intros s3 _ _.
    apply wp_bind. apply wp_flow_level. cbv beta.
    apply wp_bind. destruct (sc_flow_level s3 =? 0)%N.
    - apply wp_allow_simple_key. intros s4 _ _ _. apply IHf.
    - apply wp_ret. apply IHf. }
  destruct (c =? 35)%N.
  { apply wp_bind. apply wp_in_skip_while_non_breakz_buf. intros n s2 _ _.
    apply wp_bind. apply wp_adv_mark. intros s3 _ _. apply IHf. }
  destruct need.
  - apply wp_bind. apply wp_mark. apply wp_fail.
  - apply wp_ret. exact B1.
Qed.

End SafePrim.

Print Assumptions safe_skip_ws_to_eol.
Print Assumptions safe_skip_to_next_token.
Print Assumptions safe_skip_yaml_whitespace.
