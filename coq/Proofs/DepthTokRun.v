(* C11 — the token-nesting invariant of Proofs/DepthTok.v lifted to document_start (token-skipping loops), to
   state_machine, to every reachable state and to whole runs of the pull parser. *)
From Coq Require Import List NArith Bool Lia PeanoNat.
Import ListNotations.
Require Import Parser SFetch Pipe Drivers Grammar C02base C02rest C02tail C02run Depth DepthProofs ParserView DepthTok.
Local Open Scope nat_scope.

(* the two token-skipping loops of document_start: directives and document-end markers are neutral *)
Lemma neutral_here p q :
  p_state q = p_state p -> p_states q = p_states p -> remaining q = remaining p -> neutral_run p q.
Proof. intros A B C. repeat split; auto. exists []. rewrite C. split; reflexivity. Qed.

Lemma neutral_step p p1 q t :
  tok_open (snd t) = false -> tok_close (snd t) = false ->
  remaining p = t :: remaining p1 -> p_state p1 = p_state p -> p_states p1 = p_states p ->
  neutral_run p1 q -> neutral_run p q.
Proof.
  intros O C E A B (A1 & B1 & used & E1 & N). repeat split; try congruence.
  exists (t :: used). split; [rewrite E, E1; reflexivity|].
  intros c. cbn [cnt fold_left]. unfold tok_nest_next. rewrite O, C. apply N.
Qed.

Lemma Stk_neutral p q n c : neutral_run p q -> Stk p n c -> Stk q n c.
Proof. intros (_ & E & _) H. unfold Stk. rewrite E. exact H. Qed.

(* one round of either loop: the token is peeked, then skipped or left in the cache *)
Lemma neutral_peeked p t l q :
  remaining p = t :: l -> remaining q = remaining (set_tok p l (Some t)) ->
  p_state q = p_state p -> p_states q = p_states p -> neutral_run p q.
Proof. intros El E A B. apply neutral_here; [exact A|exact B|]. rewrite E, El. reflexivity. Qed.

Lemma neutral_skipped p t l q :
  remaining p = t :: l -> tok_open (snd t) = false -> tok_close (snd t) = false ->
  neutral_run (skip (set_tok p l (Some t))) q -> neutral_run p q.
Proof. intros El O C. apply (neutral_step p (skip (set_tok p l (Some t))) q t O C El); reflexivity. Qed.

Lemma process_directives_neutral fuel : forall p vs tags,
  match process_directives fuel p vs tags with
  | Parser.Ok q => neutral_run p q
  | _ => True
  end.
Proof.
  induction fuel as [|fuel IH]; intros p vs tags; [exact I|]. cbn [process_directives].
  destruct (peek p) as [[[sp k] q]| |] eqn:E; [|exact I..]. apply peek_eq in E as (l & El & ->).
  assert (Hskip : forall vs' tags', tok_open k = false -> tok_close k = false ->
            match process_directives fuel (skip (set_tok p l (Some (sp, k)))) vs' tags' with
            | Parser.Ok q => neutral_run p q
            | _ => True
            end).
  { intros vs' tags' O C. specialize (IH (skip (set_tok p l (Some (sp, k)))) vs' tags').
    destruct (process_directives fuel _ vs' tags'); [|exact I..]. exact (neutral_skipped _ _ _ _ El O C IH). }
  destruct k; try (apply (neutral_peeked _ _ _ _ El); reflexivity).
  - destruct vs; [exact I|]. apply Hskip; reflexivity.
  - destruct (negb (is_empty_str h) && has_key h tags); [exact I|]. apply Hskip; reflexivity.
Qed.

Lemma skip_document_ends_neutral fuel : forall p,
  match skip_document_ends fuel p with
  | Parser.Ok q => neutral_run p q
  | _ => True
  end.
Proof.
  induction fuel as [|fuel IH]; intros p; [exact I|]. cbn [skip_document_ends].
  destruct (peek p) as [[[sp k] q]| |] eqn:E; [|exact I..]. apply peek_eq in E as (l & El & ->).
  destruct k; try (apply (neutral_peeked _ _ _ _ El); reflexivity).
  specialize (IH (skip (set_tok p l (Some (sp, TDocumentEnd))))). destruct (skip_document_ends fuel _); [|exact I..].
  exact (neutral_skipped _ _ _ _ El eq_refl eq_refl IH).
Qed.

(* a document opens: SDocumentEnd is pushed as continuation, the content state becomes current *)
Lemma K_document q X c :
  Stk X 0 c -> p_states q = SDocumentEnd :: p_states X -> p_state q = SDocumentContent \/ p_state q = SBlockNode -> K q c.
Proof.
  intros HW E Hst. apply (K_set q q 0 c).
  - eapply Stk_push; [exact HW|exact E|reflexivity|discriminate|apply le_n].
  - reflexivity.
  - destruct Hst as [-> | ->]; reflexivity.
  - destruct Hst as [-> | ->]; discriminate.
  - destruct Hst as [-> | ->]; apply le_n.
Qed.

Lemma explicit_document_start_k p q used c :
  remaining p = used ++ remaining q -> Stk q 0 (cnt c used) -> kpost p c (explicit_document_start q).
Proof.
  intros Eu HW. apply (kpost_frame _ _ q used _ Eu). rewrite explicit_document_start_if.
  pose proof (process_directives_neutral (S (S (length (p_toks q)))) q false []) as HN.
  destruct (process_directives _ q false []) as [q2| |]; [|exact I..].
  apply (kpost_after_neutral _ q2 _ _ HN). apply (Stk_neutral _ _ _ _ HN) in HW.
  kpeek sp k l.
  ktest TDocumentStart k; [|exact I].
  eapply kpost_ok; [kused|]. eapply K_document; [exact HW|reflexivity|left; reflexivity].
Qed.

Lemma document_start_k p c (implicit : bool) :
  p_state p = SImplicitDocumentStart \/ p_state p = SDocumentStart -> K p c -> kpost p c (document_start p implicit).
Proof.
  intros Hst HK.
  assert (HW : Stk p 0 c) by (destruct Hst as [E|E]; exact (K_at _ _ _ E eq_refl HK)).
  rewrite document_start_if.
  pose proof (skip_document_ends_neutral (S (S (length (p_toks p)))) p) as HN.
  destruct (skip_document_ends _ p) as [q| |]; [|exact I..].
  apply (kpost_after_neutral _ q _ _ HN). apply (Stk_neutral _ _ _ _ HN) in HW. clear p Hst HK HN.
  kpeek sp k l.
  ktest TStreamEnd k. { kset HW. }
  destruct (negb implicit || tin _ k). { apply (explicit_document_start_k _ _ []); [reflexivity|exact HW]. }
  pose proof (process_directives_neutral (S (S (length l))) (set_tok q l (Some (sp, k))) false []) as HN.
  pcbn. destruct (process_directives _ _ false []) as [q2| |]; [|exact I..].
  apply (kpost_after_neutral _ q2 _ _ HN). apply (Stk_neutral _ _ _ _ HN) in HW.
  eapply kpost_ok; [kused|]. eapply K_document; [exact HW|reflexivity|right; reflexivity].
Qed.

(* one step of the pull parser keeps the invariant, for EVERY token stream *)
Theorem state_machine_k p c : K p c -> kpost p c (state_machine p).
Proof.
  intros HK. unfold state_machine. destruct (p_state p) eqn:E.
  - apply stream_start_k; assumption.
  - apply document_start_k; auto.
  - apply document_start_k; auto.
  - apply document_content_k; assumption.
  - apply document_end_k; assumption.
  - apply block_node_k; assumption.
  - apply (block_sequence_entry_k _ _ true); assumption.
  - apply (block_sequence_entry_k _ _ false); assumption.
  - apply indentless_sequence_entry_k; assumption.
  - apply (block_mapping_key_k _ _ true); assumption.
  - apply (block_mapping_key_k _ _ false); assumption.
  - apply block_mapping_value_k; assumption.
  - apply (flow_sequence_entry_k _ _ true); assumption.
  - apply (flow_sequence_entry_k _ _ false); assumption.
  - apply fsem_key_k; assumption.
  - apply fsem_value_k; assumption.
  - apply (fsem_end_k _ _ m); assumption.
  - apply (flow_mapping_key_k _ _ true); assumption.
  - apply (flow_mapping_key_k _ _ false); assumption.
  - apply flow_mapping_value_k; assumption.
  - apply flow_mapping_empty_value_k; assumption.
  - exact I.
Qed.

Lemma init_K toks keep : K (init_parser toks keep) 0.
Proof. unfold K, first_ok, init_parser. cbn. repeat split; auto. discriminate. Qed.

(* every reachable state: the tokens consumed so far are a prefix of the stream, and the invariant holds for their
   nesting counter *)
Lemma reach_K toks keep p evs :
  reach (init_parser toks keep) p evs ->
  exists consumed, toks = consumed ++ remaining p /\ K p (cnt 0 consumed).
Proof.
  induction 1 as [|p evs e sp p' HR (consumed & E & HK) HNE HS].
  - exists []. split; [reflexivity|apply init_K].
  - pose proof (state_machine_k p _ HK) as HP. rewrite HS in HP. cbn [kpost] in HP.
    destruct HP as (used & E2 & HK2). exists (consumed ++ used). split.
    + rewrite E, E2, app_assoc. reflexivity.
    + rewrite cnt_app. exact HK2.
Qed.

(* the C02 invariant ties the acceptor stack to the parser stack: collections open in the events = eframe total *)
Lemma colls_cont s : cont_ok s = true \/ s = SDocumentEnd -> length (filter is_coll (cont_frames s)) = eframe s.
Proof. intros [H| ->]; [destruct s; try discriminate H|]; reflexivity. Qed.

Lemma colls_stack stk : Rooted stk -> length (filter is_coll (stack_frames stk)) = sumf eframe stk.
Proof.
  induction 1 as [|s r Hc HR IH].
  - reflexivity.
  - unfold stack_frames in *. cbn [flat_map sumf fold_right]. rewrite filter_app, app_length, IH.
    rewrite (colls_cont s (or_introl Hc)). reflexivity.
Qed.

Lemma colls_cur st a : cur_frames st = Some a -> length (filter is_coll a) = eframe st.
Proof. destruct st; cbn; intros H; inversion H; reflexivity. Qed.

Lemma inv_colls p g : Inv p g -> colls g = eframe (p_state p) + sumf eframe (p_states p) \/ (colls g = 0).
Proof.
  unfold Inv, InvS, colls.
  destruct (p_state p) eqn:ES;
    try (intros [-> ->]; right; reflexivity);
    intros [HR [a [Ha ->]]]; left; cbn [gframes]; rewrite filter_app, app_length, (colls_stack _ HR);
    rewrite (colls_cur _ _ Ha); reflexivity.
Qed.

(* For EVERY token list and every state reachable from the initial one: the number of collections open in the
   events delivered so far is at most twice the nesting counter of the tokens consumed so far, plus the one
   collection-start token that may sit in the cache *)
Theorem open_depth_bounded_by_token_nesting toks keep p evs :
  reach (init_parser toks keep) p evs -> open_depth evs <= 2 * tok_nest_max toks.
Proof.
  intros HR.
  destruct (reach_inv _ _ _ _ HR) as [g [Hg HI]].
  destruct (reach_K _ _ _ _ HR) as (consumed & E & HK).
  assert (W0 : wf_g GInit) by (exists [], []; cbn; auto).
  destruct (grun_colls evs GInit g 0 0 Hg W0 eq_refl) as [_ C].
  unfold open_depth. rewrite <- C.
  destruct (inv_colls _ _ HI) as [EC | EC]; [|rewrite EC; lia].
  rewrite EC. destruct HK as (HS & HN & HT & HF).
  pose proof (shape_bound _ HS) as [B _]. cbn [sumf fold_right] in B. fold (sumf eframe (p_states p)) in B.
  fold (sumf tframe (p_states p)) in B.
  assert (HM : tframe (p_state p) + sumf tframe (p_states p) <= tok_nest_max toks).
  { destruct (is_first (p_state p)) eqn:F.
    - destruct (HF F) as ([sp tk] & Et & O). unfold remaining in E. rewrite Et in E.
      assert (E' : toks = (consumed ++ [(sp, tk)]) ++ p_toks p) by (rewrite <- app_assoc; exact E).
      pose proof (cnt_prefix_le_max (consumed ++ [(sp, tk)]) (p_toks p)) as L. rewrite <- E' in L.
      rewrite cnt_app in L. cbn [cnt fold_left snd] in L. unfold tok_nest_next in L. cbn [snd] in O. rewrite O in L. lia.
    - pose proof (cnt_prefix_le_max consumed (remaining p)) as L. rewrite <- E in L. lia. }
  lia.
Qed.

(* whole runs: the nesting depth of the delivered events *)
Lemma depth_run_snoc c m evs e :
  depth_run c m (evs ++ [e]) = depth_step (depth_run c m evs) e.
Proof. unfold depth_run. rewrite fold_left_app. reflexivity. Qed.

Lemma max_nesting_snoc evs e : max_nesting (evs ++ [e]) <= Nat.max (max_nesting evs) (open_depth evs).
Proof.
  unfold max_nesting, open_depth. rewrite depth_run_snoc.
  destruct (depth_run 0 0 evs) as [c m]. destruct e; cbn [depth_step fst snd]; lia.
Qed.

Lemma reach_max_nesting p0 B :
  (forall p evs, reach p0 p evs -> open_depth evs <= B) ->
  forall p evs, reach p0 p evs -> max_nesting evs <= B.
Proof.
  intros HB p evs HR. induction HR as [|p evs e sp p' HR IH HNE HS]; [cbn; lia|].
  pose proof (max_nesting_snoc evs e). pose proof (HB _ _ HR). lia.
Qed.

Lemma parse_all_reach p0 se fuel : forall p acc,
  reach p0 p (evs_of (rev acc)) ->
  exists p', reach p0 p' (evs_of (fst (parse_all fuel p se acc))).
Proof.
  induction fuel as [|fuel IH]; intros p acc HR.
  - cbn [parse_all fst]. eauto.
  - rewrite parse_all_S.
    assert (Hstep : p_state p <> SEnd -> exists p', reach p0 p' (evs_of (fst (step_result fuel p se acc)))).
    { intros HNE. unfold step_result. destruct (state_machine p) as [[[e sp] q]|er|n] eqn:ES.
      - apply IH. cbn [rev]. unfold evs_of. rewrite map_app. cbn [map fst]. fold (evs_of (rev acc)).
        eapply reach_step; eauto.
      - destruct er; cbn [fst]; eauto.
      - cbn [fst]. eauto. }
    destruct (p_state p) eqn:E; try (apply Hstep; discriminate). cbn [fst]. eauto.
Qed.

(* For EVERY token stream, whatever the fuel, whether the run ends in success, in an error or out of fuel: the events
   the pull parser delivers nest at most twice as deep as the tokens *)
Theorem nesting_bounded_by_token_nesting toks keep se fuel :
  max_nesting (evs_of (fst (parse_all fuel (init_parser toks keep) se []))) <= 2 * tok_nest_max toks.
Proof.
  destruct (parse_all_reach (init_parser toks keep) se fuel (init_parser toks keep) []) as [p' HR]; [apply reach_init|].
  eapply reach_max_nesting; [|exact HR]. intros p evs H. eapply open_depth_bounded_by_token_nesting; exact H.
Qed.

Corollary parse_tokens_nesting_bounded toks se keep :
  max_nesting (evs_of (fst (parse_tokens toks se keep))) <= 2 * tok_nest_max toks.
Proof. apply (nesting_bounded_by_token_nesting toks keep se). Qed.

(* token nesting <= the scanner's flow level along the stream + the collection starts it does not count *)
Lemma other_openers_app a b : other_openers (a ++ b) = other_openers a + other_openers b.
Proof. unfold other_openers. rewrite filter_app, app_length. reflexivity. Qed.

Lemma real_flow_open_opens t : real_flow_open t = true -> tok_open (snd t) = true.
Proof. destruct t as [sp []]; cbn; intros H; first [reflexivity | discriminate H]. Qed.

Lemma flow_close_closes t : flow_close t = true -> tok_close (snd t) = true.
Proof. destruct t as [sp []]; cbn; intros H; first [reflexivity | discriminate H]. Qed.

Lemma tok_open_not_close k : tok_open k = true -> tok_close k = false.
Proof. destruct k; cbn; intros H; first [reflexivity | discriminate H]. Qed.

(* one token: the nesting counter runs ahead of the flow level by one more only at an opener the flow level misses *)
Lemma nest_flow_step t cn mn cf mf k :
  cn <= cf + k -> mn <= mf + k -> cf <= mf ->
  let n := tok_nest_step (cn, mn) t in
  let f := tok_flow_step (cf, mf) t in
  let k' := k + (if other_open t then 1 else 0) in
  fst n <= fst f + k' /\ snd n <= snd f + k' /\ fst f <= snd f.
Proof.
  intros Hc Hm Hf. unfold tok_nest_step, tok_flow_step, tok_nest_next, other_open. cbn [fst snd].
  destruct (real_flow_open t) eqn:RO.
  - rewrite (real_flow_open_opens t RO). cbn [andb negb fst snd]. lia.
  - destruct (tok_open (snd t)) eqn:O.
    + destruct (flow_close t) eqn:FC.
      { apply flow_close_closes in FC. rewrite (tok_open_not_close _ O) in FC. discriminate FC. }
      cbn [andb negb fst snd]. lia.
    + destruct (flow_close t) eqn:FC; [rewrite (flow_close_closes t FC)|destruct (tok_close (snd t))];
        cbn [andb negb fst snd]; lia.
Qed.

Lemma nest_le_flow_plus_other toks : forall cn mn cf mf k,
  cn <= cf + k -> mn <= mf + k -> cf <= mf ->
  fst (tok_nest_run toks (cn, mn)) <= fst (tok_flow_run toks (cf, mf)) + (k + other_openers toks)
  /\ snd (tok_nest_run toks (cn, mn)) <= snd (tok_flow_run toks (cf, mf)) + (k + other_openers toks).
Proof.
  induction toks as [|t r IH]; intros cn mn cf mf k Hc Hm Hf.
  - cbn. unfold other_openers. cbn. lia.
  - unfold tok_nest_run, tok_flow_run in *. cbn [fold_left].
    change (other_openers (t :: r)) with (other_openers ([t] ++ r)). rewrite other_openers_app.
    destruct (nest_flow_step t cn mn cf mf k Hc Hm Hf) as (A & B & C).
    destruct (tok_nest_step (cn, mn) t) as [cn' mn'], (tok_flow_step (cf, mf) t) as [cf' mf']. cbn [fst snd] in A, B, C.
    destruct (IH cn' mn' cf' mf' _ A B C) as [I1 I2].
    replace (other_openers [t]) with (if other_open t then 1 else 0) by (unfold other_openers; cbn; destruct (other_open t); reflexivity).
    lia.
Qed.

Lemma tok_nest_le_flow_plus_other toks : tok_nest_max toks <= tok_flow_max toks + other_openers toks.
Proof.
  unfold tok_nest_max, tok_flow_max.
  destruct (nest_le_flow_plus_other toks 0 0 0 0 0 (le_n 0) (le_n 0) (le_n 0)) as [_ H]. exact H.
Qed.

(* the events nest at most twice as deep as: the scanner's flow level along the stream + the block collection starts
   + the synthetic FlowMappingStart tokens *)
Theorem nesting_bounded_by_flow_level_and_other_openers toks keep se fuel :
  max_nesting (evs_of (fst (parse_all fuel (init_parser toks keep) se [])))
  <= 2 * (tok_flow_max toks + other_openers toks).
Proof.
  pose proof (nesting_bounded_by_token_nesting toks keep se fuel). pose proof (tok_nest_le_flow_plus_other toks). lia.
Qed.
