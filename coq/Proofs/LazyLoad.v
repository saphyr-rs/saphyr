(* C17, repeated load(recv, multi = false) on the lazy pipeline (Model/Lazy.v) against plain iteration.

   A. [lazy_sm_char]: a lazy step pulls a list [buf] of tokens from the scanner, one next_token call each, runs the
      state machine on them, and has asked for each of them ([state_machine] on all but the last asked for more).
   B. [SG]: the scanner's flags against the last token it handed out (Proofs/LazyScan.v lifted along pulls).
   C. [LInv]: between steps the parser holds nothing but its one-token cache, and a full cache is the last token the
      scanner handed out (Proofs/LazyRead.v).
   D. document boundaries: when load(.., false) is entered the second time or later and stream_ended() holds, the
      cache holds the StreamEnd token and that token sits at the scanner's mark.
   E. the recursive descent on the lazy pipeline against Model/PushLoad.v on the list of remaining results, and the
      theorems. *)
From Coq Require Import List NArith ZArith Bool Arith Lia.
Import ListNotations.
Require Import Parser SBase SPrim SDir SScalar SFetch Pipe PushLoad Lazy Grammar ScanRelTop ParserView.
Require Import C02base C02tail C02run PushLoadProofs LazyRead LazyFusion LazyScan ScanFuelAll.
Local Open Scope nat_scope.

(* A. what a lazy step does *)
Inductive Pulls (F : nat) : sc strin -> list token -> sc strin -> Prop :=
| PuNil s : Pulls F s [] s
| PuCons s t s1 buf s' : next_token str_ops F s = SBase.Ok (Some t, s1) -> Pulls F s1 buf s' -> Pulls F s (t :: buf) s'.

Lemma lazy_sm_char F : forall k s p ev z', lazy_sm k F s p = inl (ev, z') ->
  exists buf, Pulls F s buf (lz_sc z') /\ state_machine (ext buf p) = Parser.Ok (ev, lz_p z')
     /\ (buf = [] \/ exists b' t, buf = b' ++ [t] /\ state_machine (ext b' p) = Parser.Err PErrScan).
Proof.
  induction k as [|k IH]; intros s p ev z' H.
  - rewrite lazy_sm_0 in H. destruct (state_machine p) as [[ev0 q]|[|a m]|n] eqn:E; try discriminate.
    inversion H; subst. exists []. rewrite ext_nil. cbn [lz_sc lz_p]. split; [constructor|]. split; [exact E|left; reflexivity].
  - rewrite lazy_sm_S in H. destruct (state_machine p) as [[ev0 q]|[|a m]|n] eqn:E; try discriminate.
    + inversion H; subst. exists []. rewrite ext_nil. cbn [lz_sc lz_p]. split; [constructor|]. split; [exact E|left; reflexivity].
    + unfold scan_next_token in H. destruct (next_token str_ops F s) as [[[t|] s1]|e m|n|] eqn:EN; try discriminate.
      destruct (IH _ _ _ _ H) as (buf & HP & HS & HM). exists (t :: buf). split; [econstructor; eauto|].
      rewrite <- ext_feed. split; [exact HS|]. right. destruct HM as [->|(b' & t' & -> & HM)].
      * exists [], t. rewrite ext_nil. auto.
      * exists (t :: b'), t'. rewrite <- ext_feed. auto.
Qed.

Lemma lazy_sm_not_done F : forall k s p, lazy_sm k F s p <> inr PDone.
Proof.
  induction k as [|k IH]; intros s p HS.
  - rewrite lazy_sm_0 in HS. destruct (state_machine p) as [[? ?]|[|? ?]|?]; discriminate.
  - rewrite lazy_sm_S in HS. destruct (state_machine p) as [[? ?]|[|? ?]|?]; try discriminate.
    unfold scan_next_token in HS. destruct (next_token str_ops F s) as [[[t|] s1]|? ?|?|]; try discriminate. eapply IH; eauto.
Qed.
Lemma lazy_step_not_done k F z v : lazy_step k F z = inr v -> v <> PDone.
Proof. intros H ->. exact (lazy_sm_not_done F _ _ _ H). Qed.

(* B. the scanner's flags and the last token handed out *)
Definition SG (s : sc strin) (last : option token) : Prop :=
  SEInv s /\ SSInv s /\
  (if sc_stream_end s then last = Some (span_empty (sc_mark s), TStreamEnd) else forall sp, last <> Some (sp, TStreamEnd)).
Definition upd_last (buf : list token) (last : option token) : option token := fold_left (fun _ t => Some t) buf last.

Lemma upd_last_app b t last : upd_last (b ++ [t]) last = Some t.
Proof. unfold upd_last. rewrite fold_left_app. reflexivity. Qed.

Lemma pulls_SG F s buf s' : Pulls F s buf s' -> forall last, SG s last ->
  SG s' (upd_last buf last) /\ (sc_stream_start s = true -> sc_stream_start s' = true) /\ (buf <> [] -> sc_stream_start s' = true)
  /\ (buf = [] -> s' = s).
Proof.
  induction 1 as [s|s t s1 buf s' E HP IH]; intros last (HI & HSS & HL).
  - split; [split; auto|]. split; [auto|]. split; [congruence|auto].
  - destruct (next_token_se str_ops F _ _ _ HI HSS E) as (SE0 & HI1 & SS1 & HT).
    assert (G1 : SG s1 (Some t)).
    { split; [exact HI1|]. split; [left; exact SS1|]. destruct t as [sp tk]. cbn [fst snd] in HT.
      destruct (is_se tk) eqn:ES.
      - destruct HT as [-> ->]. destruct tk; try discriminate ES. reflexivity.
      - rewrite HT. intros sp' X. inversion X; subst tk. discriminate ES. }
    destruct (IH _ G1) as (A & B & C & D). split; [exact A|]. split; [intros _; apply B, SS1|]. split; [intros _; apply B, SS1|discriminate].
Qed.

(* C. between steps *)
Definition LInv (z : lz) : Prop :=
  p_toks (lz_p z) = [] /\ exists last, SG (lz_sc z) last /\ (forall t, p_token (lz_p z) = Some t -> last = Some t).

Lemma p_toks_ext_nil buf p : p_toks p = [] -> p_toks (ext buf p) = buf.
Proof. intros E. rewrite p_toks_ext, E. reflexivity. Qed.

(* one step, with everything that is known about it *)
Lemma lazy_step_facts k F z ev z' : LInv z -> lazy_step k F z = inl (ev, z') ->
  exists buf last,
    Pulls F (lz_sc z) buf (lz_sc z') /\ state_machine (ext buf (lz_p z)) = Parser.Ok (ev, lz_p z')
    /\ p_toks (lz_p z') = [] /\ cpost (p_token (lz_p z)) buf (p_token (lz_p z'))
    /\ SG (lz_sc z) last /\ (forall t, p_token (lz_p z) = Some t -> last = Some t)
    /\ SG (lz_sc z') (upd_last buf last) /\ (forall t, p_token (lz_p z') = Some t -> upd_last buf last = Some t).
Proof.
  intros (HT & last & HG & HC) H. unfold lazy_step in H.
  destruct (lazy_sm_char F _ _ _ _ _ H) as (buf & HP & HS & HM).
  destruct (state_machine_reads _ _ _ HS) as (c & EC & CP & _). rewrite (p_toks_ext_nil _ _ HT) in EC. rewrite p_token_ext in CP.
  assert (TQ : p_toks (lz_p z') = []).
  { destruct HM as [->|(b' & t & -> & HM)].
    - symmetry in EC. apply app_eq_nil in EC. apply EC.
    - rewrite <- ext_ext in HS. eapply step_lean; eauto. }
  rewrite TQ, app_nil_r in EC. subst c.
  destruct (pulls_SG _ _ _ _ HP _ HG) as (HG' & _).
  exists buf, last. split; [exact HP|]. split; [exact HS|]. split; [exact TQ|]. split; [exact CP|]. split; [exact HG|].
  split; [exact HC|]. split; [exact HG'|].
  intros t Ht. destruct CP as [X|[[-> X]|(c' & u & -> & X)]].
  - congruence.
  - cbn. apply HC. congruence.
  - rewrite upd_last_app. congruence.
Qed.

Lemma lazy_step_LInv k F z ev z' : LInv z -> lazy_step k F z = inl (ev, z') -> LInv z'.
Proof.
  intros HI H. destruct (lazy_step_facts _ _ _ _ _ HI H) as (buf & last & _ & _ & TQ & _ & _ & _ & HG' & HC').
  split; [exact TQ|]. exists (upd_last buf last). split; assumption.
Qed.

Lemma LInv_init text keep : LInv (lz_init text keep).
Proof.
  split; [reflexivity|]. exists None. split; [|intros t X; discriminate X].
  split; [apply SEInv_init|]. split; [apply SSInv_init|]. cbn. intros sp X. discriminate X.
Qed.

(* D. document boundaries *)
(* the next token the parser will look at, if it holds one *)
Definition nx (p : parser) : option token :=
  match p_token p with Some t => Some t | None => match p_toks p with [] => None | t :: _ => Some t end end.

Lemma peek_nx p t q : Parser.peek p = Parser.Ok (t, q) -> nx p = Some t.
Proof. unfold Parser.peek, nx. destruct (p_token p); [|destruct (p_toks p)]; intros H; inversion H; reflexivity. Qed.

Lemma stream_start_shape p ev q : stream_start p = Parser.Ok (ev, q) ->
  exists t, nx p = Some t /\ snd t = TStreamStart /\ p_token q = None /\ mes q + 1 = mes p.
Proof.
  rewrite stream_start_if. destruct (Parser.peek p) as [[t p1]| |] eqn:EP; try discriminate.
  destruct (tis TStreamStart (snd t)) eqn:ET; [|discriminate]. intros H; inversion H; subst.
  exists t. split; [exact (peek_nx _ _ _ EP)|]. split; [exact (tis_bare TStreamStart _ eq_refl ET)|]. split; [reflexivity|].
  rewrite <- (mes_peek_skip _ _ _ EP). unfold mes. cbn. lia.
Qed.

(* an explicit DocumentEnd token is consumed and nothing more is looked at; otherwise the step has looked at the next
   token and holds it *)
Lemma document_end_shape p ev q : document_end p = Parser.Ok (ev, q) ->
  p_token q <> None \/ (exists t, nx p = Some t /\ snd t = TDocumentEnd /\ p_token q = None /\ mes q + 1 = mes p).
Proof.
  rewrite document_end_if. destruct (Parser.peek p) as [[[sp k] p1]| |] eqn:EP; try discriminate. cbv zeta.
  destruct (tis TDocumentEnd k) eqn:ET.
  - intros H; inversion H; subst. right. exists (sp, k).
    split; [exact (peek_nx _ _ _ EP)|]. split; [exact (tis_bare TDocumentEnd _ eq_refl ET)|].
    rewrite <- (mes_peek_skip _ _ _ EP). unfold mes. destruct (p_keep_tags p1); cbn; split; (reflexivity || lia).
  - match goal with |- context [Parser.peek ?x] => destruct (Parser.peek x) as [[t2 p3]| |] eqn:EP2; try discriminate end.
    destruct (tin directive_kinds (snd t2)); [discriminate|]. intros H; inversion H; subst. left.
    cbn [p_token set_state]. rewrite (peek_fills _ _ _ EP2). discriminate.
Qed.

Lemma document_start_at_stream_end p b sp : p_token p = Some (sp, TStreamEnd) ->
  document_start p b = Parser.Ok ((EStreamEnd, sp), skip (set_state p SEnd)).
Proof.
  destruct p as [toks c sts st an aid tgs kp]. cbn [p_token]. intros ->.
  unfold document_start. cbn [skip_document_ends p_toks length]. unfold Parser.peek. cbn. reflexivity.
Qed.

Lemma mes_ext buf p : p_toks p = [] -> mes (ext buf p) = length buf + match p_token p with Some _ => 1 | None => 0 end.
Proof. intros E. unfold mes. rewrite p_toks_ext, p_token_ext, E. reflexivity. Qed.
Lemma nx_ext buf p : p_toks p = [] -> nx (ext buf p) = match p_token p with Some t => Some t | None => hd_error buf end.
Proof. intros E. unfold nx. rewrite p_toks_ext, p_token_ext, E. cbn [app]. destruct (p_token p); [reflexivity|]. destruct buf; reflexivity. Qed.

(* a step that consumed exactly the token it looked at first, a token that is not StreamEnd, and left the cache empty:
   the scanner has not handed out StreamEnd *)
Lemma consumed_one_not_se z z' buf last t :
  p_toks (lz_p z) = [] -> (forall u, p_token (lz_p z) = Some u -> last = Some u) ->
  SG (lz_sc z') (upd_last buf last) ->
  nx (ext buf (lz_p z)) = Some t -> snd t <> TStreamEnd -> p_toks (lz_p z') = [] -> p_token (lz_p z') = None ->
  mes (lz_p z') + 1 = mes (ext buf (lz_p z)) ->
  sc_stream_end (lz_sc z') = false.
Proof.
  intros HT HC (_ & _ & HL) HN NE TQ CQ HM.
  rewrite (mes_ext _ _ HT) in HM. rewrite (nx_ext _ _ HT) in HN. unfold mes in HM. rewrite TQ, CQ in HM. cbn [length] in HM.
  destruct (sc_stream_end (lz_sc z')); [exfalso|reflexivity].
  destruct (p_token (lz_p z)) as [u|] eqn:EC.
  - assert (buf = []) by (destruct buf; [reflexivity|cbn [length] in HM; lia]). subst buf. cbn in HL.
    rewrite (HC u eq_refl) in HL. inversion HN; subst. inversion HL; subst. apply NE. reflexivity.
  - destruct buf as [|t1 [|t2 r]]; cbn [length] in HM; try lia. cbn in HN, HL. inversion HN; subst. inversion HL; subst. apply NE. reflexivity.
Qed.

Lemma Inv_ext buf p g : Inv (ext buf p) g <-> Inv p g.
Proof. unfold Inv. rewrite p_state_ext, p_states_ext. tauto. Qed.

Lemma stack_frames_rooted stk : Rooted stk -> exists pre, stack_frames stk = pre ++ [FDoc].
Proof.
  induction 1 as [|s r Hc Hr [pre IH]]; [exists []; reflexivity|].
  unfold stack_frames in *. cbn [flat_map]. rewrite IH. exists (cont_frames s ++ pre). rewrite app_assoc. reflexivity.
Qed.
(* the parser states the acceptor's state leaves open; inside a document the acceptor's stack ends in FDoc *)
Lemma Inv_state p g : Inv p g ->
  match g with
  | GInit => p_state p = SStreamStart
  | GStream [] => p_state p = SImplicitDocumentStart \/ p_state p = SDocumentStart
  | GStream [FDocDone] => p_state p = SDocumentEnd
  | GStream _ => True
  | GEnd => p_state p = SEnd
  end.
Proof.
  unfold Inv. destruct (p_state p); cbn [InvS]; try (intros [_ ->]; auto);
    intros (HR & a & _ & ->); destruct (stack_frames_rooted _ HR) as (pre & ->); rewrite app_assoc;
    destruct (a ++ pre) as [|[] [|? ?]]; exact I.
Qed.
Lemma Inv_end p g : Inv p g -> p_state p = SEnd -> g = GEnd.
Proof. unfold Inv. intros H E. rewrite E in H. apply H. Qed.

(* E. iteration, and the recursive descent on it *)
Section Descent.
Variables k F : nat.

(* the rest of the iteration from [z]: events, then the verdict *)
Inductive Run : lz -> list ev -> pend -> Prop :=
| RunEnd z : p_state (lz_p z) = SEnd -> Run z [] PDone
| RunErr z v : p_state (lz_p z) <> SEnd -> lazy_step k F z = inr v -> Run z [] v
| RunStep z x z1 evs v : p_state (lz_p z) <> SEnd -> lazy_step k F z = inl (x, z1) -> Run z1 evs v -> Run z (x :: evs) v.

Inductive Steps : lz -> list ev -> lz -> Prop :=
| StNil z : Steps z [] z
| StCons z x z1 c z' : p_state (lz_p z) <> SEnd -> lazy_step k F z = inl (x, z1) -> Steps z1 c z' -> Steps z (x :: c) z'.

Lemma Steps_app z c1 z1 c2 z2 : Steps z c1 z1 -> Steps z1 c2 z2 -> Steps z (c1 ++ c2) z2.
Proof. induction 1; intros H2; cbn [app]; [exact H2|]. econstructor; eauto. Qed.
Lemma Steps_one z x z1 : p_state (lz_p z) <> SEnd -> lazy_step k F z = inl (x, z1) -> Steps z [x] z1.
Proof. intros A B. econstructor; eauto. constructor. Qed.

Lemma lazy_parse_step z : p_state (lz_p z) <> SEnd -> lazy_parse k F z = lazy_step k F z.
Proof.
  intros NE. unfold lazy_parse. rewrite if_at_end.
  destruct (at_end (lz_p z)) eqn:E; [destruct (NE (at_end_true _ E))|reflexivity].
Qed.

Lemma lazy_run_Run fuel z acc l v : lazy_run fuel k F z acc = (l, v) -> v <> PFuel ->
  exists evs, l = rev acc ++ evs /\ Run z evs v.
Proof.
  rewrite lazy_run_iter. revert z acc.
  induction fuel as [|fuel IH]; intros z acc H NF; cbn [iter] in H; [inversion H; subst; congruence|].
  destruct (at_end (lz_p z)) eqn:E.
  - inversion H; subst. exists []. rewrite app_nil_r. split; [reflexivity|]. constructor. exact (at_end_true _ E).
  - apply at_end_false in E. destruct (lazy_step k F z) as [[x z1]|e] eqn:ES.
    + destruct (IH _ _ H NF) as (evs & -> & HR). exists (x :: evs). split; [cbn [rev]; rewrite <- app_assoc; reflexivity|].
      eapply RunStep; eauto.
    + inversion H; subst. exists []. rewrite app_nil_r. split; [reflexivity|]. eapply RunErr; eauto.
Qed.

(* a run is steps, then the reason it ends *)
Lemma Run_Steps z evs v : Run z evs v ->
  exists z', Steps z evs z' /\ ((p_state (lz_p z') = SEnd /\ v = PDone) \/ (p_state (lz_p z') <> SEnd /\ lazy_step k F z' = inr v)).
Proof.
  induction 1 as [z E|z v NE HS|z x z1 evs v NE HS HR (z' & HT & HV)].
  - exists z. split; [constructor|left; auto].
  - exists z. split; [constructor|right; auto].
  - exists z'. split; [econstructor; eauto|exact HV].
Qed.

(* the grammar invariant of C02 along lazy steps *)
Lemma step_inv z g e sp z' : LInv z -> Inv (lz_p z) g -> p_state (lz_p z) <> SEnd -> lazy_step k F z = inl ((e, sp), z') ->
  exists g', gstep g e = Some g' /\ Inv (lz_p z') g'.
Proof.
  intros HL HI NE H. destruct (lazy_step_facts _ _ _ _ _ HL H) as (buf & last & _ & HS & _).
  pose proof (state_machine_post (ext buf (lz_p z)) g) as HP. rewrite HS in HP. cbn [post] in HP. apply HP.
  - apply Inv_ext. exact HI.
  - rewrite p_state_ext. exact NE.
Qed.

Lemma steps_inv z c z' : Steps z c z' -> forall g, LInv z -> Inv (lz_p z) g ->
  exists g', grun g (kinds c) = Some g' /\ LInv z' /\ Inv (lz_p z') g'.
Proof.
  induction 1 as [z|z [e sp] z1 c z' NE HS HT IH]; intros g HL HI; [exists g; auto|].
  destruct (step_inv _ _ _ _ _ HL HI NE HS) as (g1 & G1 & I1). pose proof (lazy_step_LInv _ _ _ _ _ HL HS) as L1.
  destruct (IH g1 L1 I1) as (g' & G' & L' & I'). exists g'. cbn [kinds map fst grun]. rewrite G1. auto.
Qed.

Lemma run_grammar z evs v : Run z evs v -> forall g, LInv z -> Inv (lz_p z) g ->
  exists g', grun g (kinds evs) = Some g' /\ (v = PDone -> g' = GEnd).
Proof.
  intros HR g HL HI. destruct (Run_Steps _ _ _ HR) as (z' & HT & HV).
  destruct (steps_inv _ _ _ HT g HL HI) as (g' & G' & _ & I'). exists g'. split; [exact G'|].
  intros ->. destruct HV as [[E _]|[_ HS]]; [exact (Inv_end _ _ I' E)|]. destruct (lazy_step_not_done _ _ _ _ HS eq_refl).
Qed.

(* the list of remaining results, as Model/PushLoad.v wants it *)
Definition sentinel : result := inr PErrScan.
Definition RS (evs : list ev) : list result := map inl evs ++ [sentinel].

Lemma RS_cons x evs : RS (x :: evs) = inl x :: RS evs.
Proof. reflexivity. Qed.
Lemma RS_inj a b : RS a = RS b -> a = b.
Proof.
  unfold RS. intros H. apply app_inv_tail in H. revert b H. induction a as [|x a IH]; intros [|y b] H; cbn in H; try discriminate; auto.
  inversion H; subst. f_equal. auto.
Qed.
Lemma RS_split consumed evs rs' : RS evs = map inl consumed ++ rs' -> forall evs', rs' = RS evs' -> evs = consumed ++ evs'.
Proof.
  intros H evs' ->. apply RS_inj. unfold RS in *. rewrite H, map_app, app_assoc. reflexivity.
Qed.
Lemma RS_fail consumed evs (e : perr) tl : RS evs = map inl consumed ++ inr e :: tl -> evs = consumed /\ tl = [].
Proof.
  unfold RS. revert evs. induction consumed as [|c l IH]; intros [|x evs] H; cbn in H.
  - inversion H; auto.
  - discriminate.
  - discriminate.
  - inversion H; subst. destruct (IH _ H2) as [-> ->]. auto.
Qed.
Lemma pref_RS g evs : Pref g (RS evs) <-> grun g (kinds evs) <> None.
Proof.
  unfold Pref, RS. rewrite pre_app. cbn [pre]. rewrite app_nil_r. tauto.
Qed.
Lemma has_err_RS evs : has_err (RS evs) = true.
Proof. unfold RS. rewrite has_err_after. reflexivity. Qed.
Lemma length_RS evs : length (RS evs) = S (length evs).
Proof. unfold RS. rewrite app_length, map_length. cbn. lia. Qed.

(* reading the next result *)
Lemma run_next z evs v : Run z evs v ->
  match evs with
  | [] => (p_state (lz_p z) = SEnd /\ v = PDone) \/ lazy_parse k F z = inr v
  | x :: evs1 => exists z1, lazy_parse k F z = inl (x, z1) /\ Run z1 evs1 v /\ Steps z [x] z1
  end.
Proof.
  intros H. inversion H; subst.
  - left. auto.
  - right. rewrite lazy_parse_step; auto.
  - exists z1. rewrite lazy_parse_step; auto. split; [assumption|]. split; [assumption|]. apply Steps_one; assumption.
Qed.

(* the first step of a run that is not at its end *)
Lemma run_first z evs v : Run z evs v -> p_state (lz_p z) <> SEnd ->
  match lazy_step k F z with
  | inr e => e = v /\ evs = [] /\ v <> PDone
  | inl (x, z1) => exists evs1, evs = x :: evs1 /\ Run z1 evs1 v
  end.
Proof.
  intros H NE. destruct H as [z E|z v NE' HS|z x z1 evs v NE' HS HR]; [contradiction| |]; rewrite HS.
  - split; [reflexivity|]. split; [reflexivity|]. exact (lazy_step_not_done _ _ _ _ HS).
  - exists evs. auto.
Qed.

(* outcome of a loader of Model/PushLoad.v on the list, against the outcome of the loader on the lazy pipeline *)
Definition SimOut (v : pend) (z : lz) (evs : list ev) (lo : lout) (zo : lzout) : Prop :=
  match lo with
  | LDone acc' rs' => exists c evs' z', evs = c ++ evs' /\ rs' = RS evs' /\ Steps z c z' /\ Run z' evs' v /\ zo = ZDone acc' z'
  | LFail e acc' => v <> PDone -> zo = ZFail v acc'
  | _ => True
  end.

(* the loaders of Model/Lazy.v put together like those of Model/PushLoad.v ([lread], [lthen]) *)
Definition zread (z : lz) (acc : list ev) (kz : ev -> lz -> lzout) : lzout :=
  match lazy_parse k F z with inr e => ZFail e acc | inl (x, z1) => kz x z1 end.
Definition zthen (o : lzout) (kz : list ev -> lz -> lzout) : lzout :=
  match o with ZDone a z2 => kz a z2 | ZFail e p => ZFail e p | ZPanicked n p => ZPanicked n p | ZOutOfFuel => ZOutOfFuel end.

Lemma SimOut_seq v z evs lo zo (kl : list ev -> list result -> lout) (kz : list ev -> lz -> lzout) :
  SimOut v z evs lo zo ->
  (forall acc' c evs' z', evs = c ++ evs' -> Steps z c z' -> Run z' evs' v ->
     SimOut v z' evs' (kl acc' (RS evs')) (kz acc' z')) ->
  SimOut v z evs (lthen lo kl) (zthen zo kz).
Proof.
  intros H1 H2. destruct lo as [acc' rs'|e acc'|n acc'| |]; cbn [SimOut lthen] in *; auto.
  - destruct H1 as (c & evs' & z' & -> & -> & HS & HR & ->). specialize (H2 acc' c evs' z' eq_refl HS HR). cbn [zthen].
    destruct (kl acc' (RS evs')) as [a2 r2|e2 a2|n2 a2| |]; cbn [SimOut] in *; auto.
    destruct H2 as (c2 & evs2 & z2 & -> & -> & HS2 & HR2 & ->). exists (c ++ c2), evs2, z2.
    rewrite app_assoc. repeat split; auto. eapply Steps_app; eauto.
  - intros NV. rewrite (H1 NV). reflexivity.
Qed.

(* reading one result on both sides *)
Lemma sim_read v z evs acc (kl : ev -> list result -> lout) (kz : ev -> lz -> lzout) :
  Run z evs v ->
  (forall x z1 evs1, evs = x :: evs1 -> Steps z [x] z1 -> Run z1 evs1 v -> SimOut v z1 evs1 (kl x (RS evs1)) (kz x z1)) ->
  SimOut v z evs (lread (RS evs) acc kl) (zread z acc kz).
Proof.
  intros HR HK. pose proof (run_next _ _ _ HR) as HN. unfold zread. destruct evs as [|x evs1].
  - cbn [RS map app sentinel lread]. cbn [SimOut]. intros NV. destruct HN as [[_ ->]| ->]; [congruence|reflexivity].
  - destruct HN as (z1 & -> & HR1 & HS1). rewrite RS_cons. cbn [lread]. specialize (HK x z1 evs1 eq_refl HS1 HR1).
    destruct (kl x (RS evs1)) as [a2 r2|e2 a2|n2 a2| |]; cbn [SimOut] in *; auto.
    destruct HK as (c2 & evs2 & z2 & -> & -> & HS2 & HR2 & ->). exists (x :: c2), evs2, z2. repeat split; auto.
    change (x :: c2) with ([x] ++ c2). eapply Steps_app; eauto.
Qed.

Lemma SimOut_done v z evs acc : Run z evs v -> SimOut v z evs (LDone acc (RS evs)) (ZDone acc z).
Proof. intros HR. exists [], evs, z. repeat split; auto. constructor. Qed.

Theorem loaders_sim : forall fuel,
  (forall first z evs v acc, Run z evs v ->
     SimOut v z evs (load_node fuel first (RS evs) acc) (lz_load_node k F fuel first z acc))
  /\ (forall z evs v acc, Run z evs v ->
     SimOut v z evs (load_sequence fuel (RS evs) acc) (lz_load_sequence k F fuel z acc))
  /\ (forall z evs v acc, Run z evs v ->
     SimOut v z evs (load_mapping fuel (RS evs) acc) (lz_load_mapping k F fuel z acc)).
Proof.
  induction fuel as [|f (IHn & IHs & IHm)]; [repeat split; intros; exact I|].
  repeat split.
  - intros first z evs v acc HR. cbn [load_node lz_load_node].
    destruct (fst first); try exact I; try (apply SimOut_done; exact HR); [apply IHs|apply IHm]; exact HR.
  - intros z evs v acc HR. cbn [load_sequence lz_load_sequence]. apply sim_read; [exact HR|].
    intros x z1 evs1 -> HS1 HR1. destruct (is_seq_end x); [apply SimOut_done; exact HR1|].
    apply SimOut_seq; [apply IHn; exact HR1|]. intros acc' c evs' z' _ _ HR'. apply IHs. exact HR'.
  - intros z evs v acc HR. cbn [load_mapping lz_load_mapping]. apply sim_read; [exact HR|].
    intros key z1 evs1 -> HS1 HR1. destruct (is_map_end key); [apply SimOut_done; exact HR1|].
    apply SimOut_seq; [apply IHn; exact HR1|]. intros acc' c evs' z' _ _ HR'.
    apply sim_read; [exact HR'|]. intros v0 z3 evs3 -> HS3 HR3.
    apply SimOut_seq; [apply IHn; exact HR3|]. intros acc'' c4 evs4 z4 _ _ HR4. apply IHm. exact HR4.
Qed.

Lemma load_document_sim fuel first z evs v acc : Run z evs v -> PushLoad.is_doc_start first = true ->
  SimOut v z evs (load_document fuel first (RS evs) acc) (lz_load_document k F fuel first z acc).
Proof.
  intros HR DS. unfold load_document, lz_load_document. rewrite DS. cbn [negb].
  destruct (loaders_sim fuel) as (IHn & _ & _).
  apply sim_read; [exact HR|]. intros n z1 evs1 -> HS1 HR1.
  apply SimOut_seq; [apply IHn; exact HR1|]. intros acc' c evs' z' _ _ HR'.
  apply sim_read; [exact HR'|]. intros d z3 evs3 -> HS3 HR3. destruct (is_doc_end d); [apply SimOut_done; exact HR3|exact I].
Qed.

End Descent.

(* what the node loaders of Model/PushLoad.v push: node events only *)
Definition node_ev (e : ev) : bool :=
  match fst e with
  | EAlias _ | EScalar _ _ _ _ | ESequenceStart _ _ | ESequenceEnd | EMappingStart _ _ | EMappingEnd => true
  | _ => false
  end.
Definition out_acc (o : lout) : option (list ev) :=
  match o with LDone a _ | LFail _ a | LPanicked _ a => Some a | _ => None end.
Definition PK (acc : list ev) (o : lout) : Prop :=
  match out_acc o with
  | Some acc' => exists new, acc' = new ++ acc /\ Forall (fun e => node_ev e = true) new
  | None => True
  end.
Lemma PK_here acc o : out_acc o = Some acc -> PK acc o.
Proof. unfold PK. intros ->. exists []. split; [reflexivity|constructor]. Qed.
Lemma PK_cons x acc o : node_ev x = true -> PK (x :: acc) o -> PK acc o.
Proof.
  unfold PK. intros Hx H. destruct (out_acc o) as [acc'|]; [|exact I]. destruct H as (new & -> & HF).
  exists (new ++ [x]). rewrite <- app_assoc. split; [reflexivity|]. apply Forall_app. split; [exact HF|constructor; [exact Hx|constructor]].
Qed.
Lemma PK_seq acc o (kl : list ev -> list result -> lout) : PK acc o -> (forall a r, PK a (kl a r)) -> PK acc (lthen o kl).
Proof.
  intros H1 H2. destruct o as [a r|e a|n a| |]; try exact H1. cbn [lthen].
  unfold PK in H1. cbn [out_acc] in H1. destruct H1 as (new & -> & HF). specialize (H2 (new ++ acc) r).
  unfold PK in *. destruct (out_acc (kl (new ++ acc) r)) as [acc'|]; [|exact I]. destruct H2 as (new2 & -> & HF2).
  exists (new2 ++ new). rewrite app_assoc. split; [reflexivity|]. apply Forall_app. split; assumption.
Qed.
Lemma PK_read acc rs (kl : ev -> list result -> lout) : (forall x rs', PK acc (kl x rs')) -> PK acc (lread rs acc kl).
Proof. intros H. destruct rs as [|[x|e] rs']; [exact I|apply H|apply PK_here; reflexivity]. Qed.

Theorem loaders_push : forall fuel,
  (forall first rs acc, PK acc (load_node fuel first rs acc))
  /\ (forall rs acc, PK acc (load_sequence fuel rs acc))
  /\ (forall rs acc, PK acc (load_mapping fuel rs acc)).
Proof.
  induction fuel as [|f (IHn & IHs & IHm)]; [repeat split; intros; exact I|].
  repeat split.
  - intros first rs acc. cbn [load_node].
    destruct (fst first) eqn:EF; try (apply PK_here; reflexivity);
      try (apply (PK_cons first); [unfold node_ev; rewrite EF; reflexivity|]; first [apply PK_here; reflexivity|apply IHs|apply IHm]).
  - intros rs acc. cbn [load_sequence]. apply PK_read. intros x rs'.
    destruct (PushLoad.is_seq_end x) eqn:EX.
    + apply (PK_cons x); [unfold node_ev; unfold PushLoad.is_seq_end in EX; destruct (fst x); try discriminate; reflexivity|].
      apply PK_here. reflexivity.
    + apply PK_seq; [apply IHn|intros; apply IHs].
  - intros rs acc. cbn [load_mapping]. apply PK_read. intros x rs'.
    destruct (PushLoad.is_map_end x) eqn:EX.
    + apply (PK_cons x); [unfold node_ev; unfold PushLoad.is_map_end in EX; destruct (fst x); try discriminate; reflexivity|].
      apply PK_here. reflexivity.
    + apply PK_seq; [apply IHn|]. intros a r. apply PK_read. intros v rs3.
      apply PK_seq; [apply IHn|intros; apply IHm].
Qed.

Lemma load_document_push fuel x rs acc : PushLoad.is_doc_start x = true ->
  match load_document fuel x rs acc with
  | LDone out _ => exists new d, out = d :: new ++ x :: acc /\ PushLoad.is_doc_end d = true /\ Forall (fun e => node_ev e = true) new
  | LFail _ out => exists new, out = new ++ x :: acc /\ Forall (fun e => node_ev e = true) new
  | _ => True
  end.
Proof.
  intros DS. unfold load_document. rewrite DS. cbn [negb].
  destruct rs as [|[n|e] rs']; [exact I| |exists []; split; [reflexivity|constructor]].
  destruct (loaders_push fuel) as (Hn & _ & _). specialize (Hn n rs' (x :: acc)). unfold PK in Hn.
  destruct (load_node fuel n rs' (x :: acc)) as [a r|e a|m a| |]; cbn [out_acc] in Hn; try exact I; [|exact Hn].
  destruct Hn as (new & -> & HF). destruct r as [|[d|e] rs3]; [exact I| |exists new; auto].
  destruct (PushLoad.is_doc_end d) eqn:ED; [|exact I]. exists new, d. auto.
Qed.

Lemma node_events_stay evs : Forall (fun e => node_ev e = true) evs -> forall stk g,
  grun (GStream stk) (kinds evs) = Some g -> g <> GEnd.
Proof.
  induction 1 as [|[e sp] l He Hl IH]; intros stk g H; cbn [kinds map fst grun] in H; [inversion H; discriminate|].
  destruct (gstep (GStream stk) e) as [g1|] eqn:G1; [|discriminate].
  assert (X : exists stk1, g1 = GStream stk1).
  { unfold node_ev in He. cbn [fst] in He. destruct e; try discriminate He; cbn [gstep on_stream] in G1.
    - destruct (complete stk); inversion G1; eauto.
    - destruct (complete stk); inversion G1; eauto.
    - destruct (node_ok stk); inversion G1; eauto.
    - destruct stk as [|[] r]; try discriminate. destruct (complete r); inversion G1; eauto.
    - destruct (node_ok stk); inversion G1; eauto.
    - destruct stk as [|[] r]; try discriminate. destruct (complete r); inversion G1; eauto. }
  destruct X as (stk1 & ->). eapply IH; eauto.
Qed.

Section Calls.
Variables k F : nat.
Notation Run := (Run k F).
Notation Steps := (Steps k F).

Lemma lazy_sm_ok n s p ev q : state_machine p = Parser.Ok (ev, q) -> lazy_sm n F s p = inl (ev, {| lz_sc := s; lz_p := q |}).
Proof. intros E. destruct n; [rewrite lazy_sm_0|rewrite lazy_sm_S]; rewrite E; reflexivity. Qed.

Lemma Steps_split z c1 c2 z' : Steps z (c1 ++ c2) z' -> exists zm, Steps z c1 zm /\ Steps zm c2 z'.
Proof.
  revert z. induction c1 as [|x c1 IH]; intros z H; cbn [app] in H.
  - exists z. split; [constructor|exact H].
  - inversion H; subst. destruct (IH _ H6) as (zm & A & B). exists zm. split; [econstructor; eauto|exact B].
Qed.

Lemma step_ss z ev z' : LInv z -> lazy_step k F z = inl (ev, z') ->
  sc_stream_start (lz_sc z) = true -> sc_stream_start (lz_sc z') = true.
Proof.
  intros HL H. destruct (lazy_step_facts _ _ _ _ _ HL H) as (buf & last & HP & _ & _ & _ & HG & _).
  destruct (pulls_SG _ _ _ _ HP _ HG) as (_ & X & _). exact X.
Qed.
Lemma steps_ss z c z' : Steps z c z' -> LInv z -> sc_stream_start (lz_sc z) = true -> sc_stream_start (lz_sc z') = true.
Proof.
  induction 1 as [z|z x z1 c z' NE HS HT IH]; intros HL SS; [exact SS|].
  apply IH; [eapply lazy_step_LInv; eauto|eapply step_ss; eauto].
Qed.

(* the state after the step that emits DocumentEnd, and after the step that emits StreamStart *)
Lemma boundary_after_docend z ev z' : LInv z -> p_state (lz_p z) = SDocumentEnd -> lazy_step k F z = inl (ev, z') ->
  sc_stream_end (lz_sc z') = true -> p_token (lz_p z') <> None.
Proof.
  intros HL ST H SE. destruct (lazy_step_facts _ _ _ _ _ HL H) as (buf & last & HP & HS & TQ & _ & _ & HC & HG' & _).
  unfold state_machine in HS. rewrite p_state_ext, ST in HS.
  destruct (document_end_shape _ _ _ HS) as [X|(t & NX & KT & CQ & HM)]; [exact X|exfalso].
  destruct HL as (HT & _).
  assert (NS : snd t <> TStreamEnd) by (rewrite KT; discriminate).
  rewrite (consumed_one_not_se z z' buf last t HT HC HG' NX NS TQ CQ HM) in SE. discriminate.
Qed.
Lemma boundary_after_stream_start z ev z' : LInv z -> p_state (lz_p z) = SStreamStart -> p_token (lz_p z) = None ->
  lazy_step k F z = inl (ev, z') ->
  sc_stream_end (lz_sc z') = false /\ sc_stream_start (lz_sc z') = true.
Proof.
  intros HL ST CN H. destruct (lazy_step_facts _ _ _ _ _ HL H) as (buf & last & HP & HS & TQ & _ & HG & HC & HG' & _).
  unfold state_machine in HS. rewrite p_state_ext, ST in HS.
  destruct (stream_start_shape _ _ _ HS) as (t & NX & KT & CQ & HM). destruct HL as (HT & _).
  assert (NS : snd t <> TStreamEnd) by (rewrite KT; discriminate).
  split; [exact (consumed_one_not_se z z' buf last t HT HC HG' NX NS TQ CQ HM)|].
  destruct (pulls_SG _ _ _ _ HP _ HG) as (_ & _ & X & _). apply X.
  rewrite (nx_ext _ _ HT), CN in NX. destruct buf; [discriminate|discriminate].
Qed.

Definition BInv (z : lz) : Prop :=
  LInv z /\ sc_stream_start (lz_sc z) = true /\ Inv (lz_p z) (GStream [])
  /\ (sc_stream_end (lz_sc z) = true -> p_token (lz_p z) <> None).

(* what one call delivers *)
Definition end_seg (seg : list ev) : Prop := exists x, seg = [x] /\ PushLoad.is_stream_end x = true.
Definition one_doc (seg : list ev) : Prop :=
  exists x mid d, seg = x :: mid ++ [d] /\ PushLoad.is_doc_start x = true /\ PushLoad.is_doc_end d = true
                  /\ Forall (fun e => node_ev e = true) mid /\ grun (GStream []) (kinds seg) = Some (GStream []).

Lemma run_at_end z evs v : Run z evs v -> p_state (lz_p z) = SEnd -> evs = [] /\ v = PDone.
Proof. intros H E. inversion H; subst; auto; congruence. Qed.

Lemma rest_call fuel z evs v acc : BInv z -> Run z evs v -> 2 * length evs + 6 <= fuel ->
  match lz_load_rest k F fuel z acc with
  | ZDone pushed z' => exists seg evs', pushed = rev seg ++ acc /\ evs = seg ++ evs' /\
        ((end_seg seg /\ evs' = [] /\ v = PDone) \/ (one_doc seg /\ Run z' evs' v /\ BInv z'))
  | ZFail e pushed => e = v /\ pushed = rev evs ++ acc /\ v <> PDone
  | ZPanicked _ _ => False
  | ZOutOfFuel => False
  end.
Proof.
  intros (HL & SS & HI & HC) HR HF. unfold lz_load_rest.
  assert (NE : p_state (lz_p z) <> SEnd) by (destruct (Inv_state _ _ HI) as [E|E]; rewrite E; discriminate).
  destruct (sc_stream_end (lz_sc z)) eqn:SE.
  - (* the stream_ended() shortcut *)
    specialize (HC eq_refl). destruct (p_token (lz_p z)) as [t|] eqn:CT; [clear HC|congruence].
    destruct HL as (HT & last & (_ & _ & HLast) & HCache). rewrite SE in HLast. rewrite (HCache t CT) in HLast.
    inversion HLast; subst t. clear HLast.
    assert (ST : lazy_step k F z = inl ((EStreamEnd, span_empty (sc_mark (lz_sc z))),
                                        {| lz_sc := lz_sc z; lz_p := skip (set_state (lz_p z) SEnd) |})).
    { unfold lazy_step. apply lazy_sm_ok. unfold state_machine.
      destruct (Inv_state _ _ HI) as [E|E]; rewrite E; apply document_start_at_stream_end; exact CT. }
    pose proof (run_first _ _ _ _ _ HR NE) as HN. rewrite ST in HN. destruct HN as (evs1 & -> & HR1).
    destruct (run_at_end _ _ _ HR1 eq_refl) as [-> ->].
    exists [(EStreamEnd, span_empty (sc_mark (lz_sc z)))], []. split; [reflexivity|]. split; [reflexivity|].
    left. split; [eexists; split; reflexivity|auto].
  - rewrite (lazy_parse_step _ _ _ NE). pose proof (run_first _ _ _ _ _ HR NE) as HN.
    destruct (lazy_step k F z) as [[[e sp] z1]|e0] eqn:ST.
    + destruct HN as (evs1 & -> & HR1). destruct (step_inv _ _ _ _ _ _ _ HL HI NE ST) as (g1 & G1 & I1).
      pose proof (lazy_step_LInv _ _ _ _ _ HL ST) as L1. pose proof (step_ss _ _ _ HL ST SS) as SS1.
      destruct (gstep_top (e, sp) g1 G1) as [[ESE ->]|(ESE & EDS & ->)]; rewrite ESE.
      * destruct (run_at_end _ _ _ HR1 (Inv_state _ _ I1)) as [-> ->].
        exists [(e, sp)], []. split; [reflexivity|]. split; [reflexivity|]. left. split; [eexists; split; [reflexivity|exact ESE]|auto].
      * destruct (run_grammar _ _ _ _ _ HR1 _ L1 I1) as (gf & GF & GD).
        assert (HP : Pref (GStream [FDoc]) (RS evs1)) by (apply pref_RS; rewrite GF; discriminate).
        assert (HG : good ((e, sp) :: acc) (RS evs1) doc_post (load_document fuel (e, sp) (RS evs1) acc)).
        { apply document_good; [exact EDS|exact HP|apply has_err_RS|]. rewrite length_RS. cbn [length] in HF. lia. }
        pose proof (load_document_sim k F fuel (e, sp) z1 evs1 v acc HR1 EDS) as HSim.
        pose proof (load_document_push fuel (e, sp) (RS evs1) acc EDS) as HPush.
        inversion HG as [consumed rs' ERS [GC PC] EO|consumed e0 tl ERS EO]; rewrite <- EO in HSim, HPush; cbn [SimOut] in HSim.
        -- destruct HSim as (c & evs' & z' & EC & -> & HSt & HR' & ->).
           pose proof (RS_split _ _ _ ERS evs' eq_refl) as EC2. rewrite EC in EC2. apply app_inv_tail in EC2. subst c.
           destruct HPush as (new & d & EN & ED & HN).
           assert (ECons : consumed = rev new ++ [d]).
           { assert (X : rev consumed = d :: new).
             { apply (app_inv_tail ((e, sp) :: acc)). exact EN. }
             rewrite <- (rev_involutive consumed), X. reflexivity. }
           exists ((e, sp) :: consumed), evs'. split; [cbn [rev]; rewrite <- app_assoc; reflexivity|]. split; [rewrite EC; reflexivity|].
           right. split; [|split; [exact HR'|]].
           ++ exists (e, sp), (rev new), d. split; [rewrite ECons; reflexivity|]. split; [exact EDS|]. split; [exact ED|].
              split; [apply Forall_rev; exact HN|]. cbn [kinds map fst grun]. cbn [fst] in G1. rewrite G1. exact GC.
           ++ destruct (steps_inv _ _ _ _ _ HSt _ L1 I1) as (g' & G' & L' & I'). rewrite GC in G'. inversion G'; subst g'.
              split; [exact L'|]. split; [eapply steps_ss; eauto|]. split; [exact I'|].
              rewrite ECons in HSt. destruct (Steps_split _ _ _ _ HSt) as (zd & HSd & HSl).
              destruct (steps_inv _ _ _ _ _ HSd _ L1 I1) as (gd & Gd & Ld & Id).
              inversion HSl as [|zz xx zz1 cc zz' NEd STd HNil]; subst. inversion HNil; subst.
              destruct d as [de dsp]. destruct (step_inv _ _ _ _ _ _ _ Ld Id NEd STd) as (g2 & G2 & _).
              assert (EDE : de = EDocumentEnd) by (unfold PushLoad.is_doc_end in ED; cbn [fst] in ED; destruct de; try discriminate; reflexivity).
              subst de. assert (gd = GStream [FDocDone]).
              { destruct gd as [|stk|]; cbn in G2; try discriminate. destruct stk as [|[] [|? ?]]; try discriminate. reflexivity. }
              subst gd. eapply boundary_after_docend; eauto. exact (Inv_state _ _ Id).
        -- destruct (RS_fail _ _ _ _ ERS) as [-> ->]. destruct HPush as (new & EN & HN).
           assert (NV : v <> PDone).
           { intros ->. specialize (GD eq_refl). subst gf.
             assert (X : rev consumed = new).
             { apply (app_inv_tail ((e, sp) :: acc)). exact EN. }
             assert (HF2 : Forall (fun e => node_ev e = true) consumed).
             { rewrite <- (rev_involutive consumed), X. apply Forall_rev. exact HN. }
             exact (node_events_stay _ HF2 _ _ GF eq_refl). }
           rewrite (HSim NV). split; [reflexivity|]. split; [|exact NV]. cbn [rev]. rewrite <- app_assoc. reflexivity.
    + destruct HN as (-> & -> & NV). auto.
Qed.
End Calls.

(* the calls of the driver *)
Section Driver.
Variables k F : nat.
Notation Run := (Run k F).

(* before the first call *)
Definition B0 (z : lz) : Prop :=
  LInv z /\ sc_stream_start (lz_sc z) = false /\ p_state (lz_p z) = SStreamStart /\ p_states (lz_p z) = [] /\ p_token (lz_p z) = None.
Definition entry (first : bool) (z : lz) : Prop := if first then B0 z else BInv z.

(* what a call delivers: on the first call StreamStart, then StreamEnd or one document *)
Definition pre_ok (first : bool) (pre : list ev) : Prop :=
  if first then exists x, pre = [x] /\ PushLoad.is_stream_start x = true else pre = [].
Definition seg_end (first : bool) (seg : list ev) : Prop := exists pre body, seg = pre ++ body /\ pre_ok first pre /\ end_seg body.
Definition seg_doc (first : bool) (seg : list ev) : Prop := exists pre body, seg = pre ++ body /\ pre_ok first pre /\ one_doc body.

Lemma single_call first fuel z evs v : entry first z -> Run z evs v -> 2 * length evs + 6 <= fuel ->
  match lz_load_single k F fuel z [] with
  | ZDone pushed z' => exists seg evs', pushed = rev seg /\ evs = seg ++ evs' /\
        ((seg_end first seg /\ evs' = [] /\ v = PDone) \/ (seg_doc first seg /\ Run z' evs' v /\ BInv z'))
  | ZFail e pushed => e = v /\ pushed = rev evs /\ v <> PDone
  | ZPanicked _ _ => False
  | ZOutOfFuel => False
  end.
Proof.
  intros HE HR HF. unfold lz_load_single. destruct first; cbn [entry] in HE.
  - destruct HE as (HL & SS & ST & STK & CN). rewrite SS.
    assert (NE : p_state (lz_p z) <> SEnd) by (rewrite ST; discriminate).
    assert (HI : Inv (lz_p z) GInit) by (unfold Inv; rewrite ST, STK; cbn; auto).
    rewrite (lazy_parse_step _ _ _ NE). pose proof (run_first _ _ _ _ _ HR NE) as HN.
    destruct (lazy_step k F z) as [[[e sp] z1]|e0] eqn:STP; [|destruct HN as (-> & -> & NV); auto].
    destruct HN as (evs1 & -> & HR1). destruct (step_inv _ _ _ _ _ _ _ HL HI NE STP) as (g1 & G1 & I1).
    assert (EE : e = EStreamStart /\ g1 = GStream []) by (destruct e; cbn in G1; try discriminate; inversion G1; auto).
    destruct EE as [-> ->]. cbn [PushLoad.is_stream_start fst negb].
    destruct (boundary_after_stream_start _ _ _ _ _ HL ST CN STP) as [SE1 SS1].
    assert (B1 : BInv z1).
    { split; [eapply lazy_step_LInv; eauto|]. split; [exact SS1|]. split; [exact I1|]. rewrite SE1. discriminate. }
    assert (HF1 : 2 * length evs1 + 6 <= fuel) by (cbn [length] in HF; unfold ev in *; lia).
    (* the accumulator is taken from the goal: written out it would be a list over [ev], not over [event * span] *)
    match goal with |- context [lz_load_rest k F fuel z1 ?a] =>
      pose proof (rest_call k F fuel z1 evs1 v a B1 HR1 HF1) as HC;
      destruct (lz_load_rest k F fuel z1 a) as [pushed z'|e pushed|n pushed|]; try contradiction end.
    + destruct HC as (seg & evs' & -> & -> & HD). cbv beta iota. exists ((EStreamStart, sp) :: seg), evs'.
      split; [reflexivity|]. split; [reflexivity|].
      destruct HD as [(A & B & C)|(A & B & C)]; [left|right]; (split; [|auto]);
        exists [(EStreamStart, sp)], seg; (split; [reflexivity|]); (split; [eexists; split; reflexivity|exact A]).
    + destruct HC as (-> & -> & NV). cbv beta iota. auto.
  - destruct HE as (HL & SS & HI & HC). rewrite SS.
    match goal with |- context [lz_load_rest k F fuel z ?a] =>
      pose proof (rest_call k F fuel z evs v a (conj HL (conj SS (conj HI HC))) HR HF) as HC2;
      destruct (lz_load_rest k F fuel z a) as [pushed z'|e pushed|n pushed|]; try contradiction end.
    + destruct HC2 as (seg & evs' & -> & -> & HD). cbv beta iota. exists seg, evs'. rewrite app_nil_r. split; [reflexivity|]. split; [reflexivity|].
      destruct HD as [(A & B & C)|(A & B & C)]; [left|right]; (split; [|auto]); exists [], seg; (split; [reflexivity|]); (split; [reflexivity|exact A]).
    + destruct HC2 as (-> & -> & NV). cbv beta iota. rewrite app_nil_r. auto.
Qed.

(* the segments of a whole run *)
Inductive Shapes : bool -> pend -> list (list ev) -> Prop :=
| ShFail first v seg : v <> PDone -> Shapes first v [seg]
| ShEnd first seg : seg_end first seg -> Shapes first PDone [seg]
| ShDoc first v seg rest : seg_doc first seg -> Shapes false v rest -> Shapes first v (seg :: rest).

Lemma seg_end_head first seg : seg_end first seg -> exists x r, rev seg = x :: r /\ PushLoad.is_stream_end x = true.
Proof. intros (pre & body & -> & _ & x & -> & HX). rewrite rev_app_distr. cbn. eauto. Qed.
Lemma seg_doc_head first seg : seg_doc first seg -> exists x r, rev seg = x :: r /\ PushLoad.is_stream_end x = false.
Proof.
  intros (pre & body & -> & _ & x & mid & d & -> & _ & ED & _). rewrite rev_app_distr. cbn [rev]. rewrite rev_app_distr. cbn.
  exists d. eexists. split; [reflexivity|]. unfold PushLoad.is_doc_end, PushLoad.is_stream_end in *. destruct (fst d); try discriminate; reflexivity.
Qed.
Lemma seg_doc_nonempty first seg : seg_doc first seg -> 1 <= length seg.
Proof. intros (pre & body & -> & _ & x & mid & d & -> & _). rewrite app_length. cbn [length]. lia. Qed.

Lemma repeated_calls fuel : forall calls first z evs v segs,
  entry first z -> Run z evs v -> length evs < calls -> 2 * length evs + 6 <= fuel ->
  exists segs', lz_load_repeated k F calls fuel z segs = (rev segs ++ segs', v) /\ concat segs' = evs /\ Shapes first v segs'.
Proof.
  induction calls as [|calls IH]; intros first z evs v segs HE HR HC HF; [lia|]. cbn [lz_load_repeated].
  pose proof (single_call first fuel z evs v HE HR HF) as HS.
  match goal with |- context [lz_load_single k F fuel z ?a] =>
    change (lz_load_single k F fuel z []) with (lz_load_single k F fuel z a) in HS;
    destruct (lz_load_single k F fuel z a) as [pushed z'|e pushed|n pushed|]; try contradiction end.
  - destruct HS as (seg & evs' & -> & -> & HD). cbv beta iota. destruct HD as [(A & -> & ->)|(A & B & C)].
    + destruct (seg_end_head _ _ A) as (x & r & EQ & HX). rewrite EQ, HX. rewrite <- EQ, rev_involutive.
      exists [seg]. cbn [rev concat]. rewrite !app_nil_r. split; [reflexivity|]. split; [reflexivity|]. apply ShEnd. exact A.
    + destruct (seg_doc_head _ _ A) as (x & r & EQ & HX). rewrite EQ, HX. rewrite <- EQ, rev_involutive.
      pose proof (seg_doc_nonempty _ _ A) as LN. rewrite app_length in HC, HF.
      destruct (IH false z' evs' v (seg :: segs) C B ltac:(lia) ltac:(lia)) as (segs' & -> & EC & SH).
      exists (seg :: segs'). cbn [rev concat]. rewrite <- app_assoc. cbn [app]. rewrite EC. split; [reflexivity|]. split; [reflexivity|].
      apply ShDoc; assumption.
  - destruct HS as (-> & -> & NV). cbv beta iota. rewrite rev_involutive. exists [evs]. cbn [rev concat]. rewrite app_nil_r.
    split; [reflexivity|]. split; [reflexivity|]. apply ShFail. exact NV.
Qed.
End Driver.

Lemma B0_init text : B0 (lz_init text false).
Proof. split; [apply LInv_init|]. repeat split; reflexivity. Qed.

(* the theorems *)
Lemma lazy_run_length k F n acc z l v : lazy_run n k F z acc = (l, v) -> length l <= n + length acc.
Proof. intros H. change l with (fst (l, v)). rewrite <- H, lazy_run_iter. apply iter_length. Qed.

Lemma run_of_text text :
  exists evs v, run_str text = (evs, v) /\ v <> PFuel /\ Run (lazy_K text) (lazy_F text) (lz_init text false) evs v
                /\ length evs <= 4 * (4 * lazy_F text + 20) + 40.
Proof.
  pose proof (pipeline_never_out_of_fuel text) as NF. rewrite <- lazy_is_batch in *.
  destruct (lazy_run_str text) as [evs v] eqn:E. cbn [snd] in NF. exists evs, v. split; [reflexivity|]. split; [exact NF|].
  unfold lazy_run_str in E. pose proof (lazy_run_length _ _ _ _ _ _ _ E) as HLen. cbn [length] in HLen.
  destruct (lazy_run_Run _ _ _ _ _ _ _ E NF) as (evs' & -> & HR). cbn [rev app] in *. split; [exact HR|]. rewrite Nat.add_0_r in HLen. exact HLen.
Qed.

(* the calls of the driver on a text: their segments, against the iteration *)
Lemma calls_of_text text :
  exists segs, load_repeated_str text = (segs, snd (run_str text)) /\ concat segs = fst (run_str text)
               /\ Shapes true (snd (run_str text)) segs.
Proof.
  destruct (run_of_text text) as (evs & v & E & NF & HR & HL). rewrite E. cbn [fst snd].
  unfold load_repeated_str. cbv zeta.
  destruct (repeated_calls (lazy_K text) (lazy_F text) (2 * (4 * (4 * lazy_F text + 20) + 40) + 6)
              (S (4 * (4 * lazy_F text + 20) + 40)) true (lz_init text false) evs v [] (B0_init text) HR)
    as (segs' & -> & EC & SH); [unfold ev in *; lia|unfold ev in *; lia|].
  exists segs'. auto.
Qed.

(* T2: the calls of repeated load(recv, false) together deliver exactly the iteration: events, spans, verdict *)
Theorem single_load_is_iteration : forall text : list N,
  let r := load_repeated_str text in (concat (fst r), snd r) = run_str text.
Proof.
  intros text. cbv zeta. destruct (calls_of_text text) as (segs & -> & EC & _). cbn [fst snd]. rewrite EC.
  symmetry. apply surjective_pairing.
Qed.

(* T3: each call delivers one document - or StreamEnd -, preceded by StreamStart on the first call; only a call
   that fails may deliver something else (the events before the error) *)
Theorem single_load_one_document_per_call : forall text : list N,
  Shapes true (snd (load_repeated_str text)) (fst (load_repeated_str text)).
Proof. intros text. destruct (calls_of_text text) as (segs & -> & _ & SH). exact SH. Qed.
