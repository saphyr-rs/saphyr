(* Joint proof "every position the scanner reports is a true position" (see SCANPOS.md) - family: BLOCK SCALARS.
   Main result: [pos_scan_block_scalar].

   Over the string back-end [buf_is_empty] is [si_look = 0], a boolean this proof knows nothing about, so both the
   buffered loop and the raw fast path of [scan_block_scalar_content_line] are shown position-correct, and the
   "narrow" and the "wide" indentation skippers alike.  The only thing used about [buf_is_empty] is that it is a
   function of the state ([swp_buf_is_empty_val]): the test that ends the buffered loop and the test that selects the
   raw path see the same state, hence the content-line reader always stops in front of a break or NUL. *)
From Coq Require Import List NArith ZArith Bool Arith Lia.
Import ListNotations.
Require Import Parser SBase SPrim SDir SScalar SFetch Positions ScanLoops ScanPos ScanPosPrim.
Local Open Scope nat_scope.

Arguments Nat.ltb : simpl never.
Arguments Nat.leb : simpl never.
Arguments Nat.eqb : simpl never.
Arguments Nat.sub : simpl never.
Arguments N.ltb : simpl never.
Arguments N.eqb : simpl never.
Arguments N.leb : simpl never.
Arguments N.add : simpl never.
Arguments N.max : simpl never.

(* character classes *)
Lemma pm_not_breakz c : ((c =? 43) || (c =? 45))%N = true -> is_breakz c = false.
Proof. intros H. apply orb_true_iff in H as [H|H]; apply N.eqb_eq in H; subst c; reflexivity. Qed.
Lemma breakz_not_z c : is_breakz c = true -> is_z c = false -> is_break c = true.
Proof. unfold is_breakz. intros H Hz. rewrite Hz, orb_false_r in H. exact H. Qed.

(* pure reads: the state is not touched (any error predicate) *)
Definition bempty (s : sst) : bool := Nat.eqb (si_look (sc_in s)) 0.
Lemma swp_buf_is_empty_val E (Q : bool -> sst -> Prop) s : Q (bempty s) s -> swp E (buf_is_empty str_ops) Q s.
Proof. intros H. exact H. Qed.

Lemma swp_next_is_document_end E (Q : bool -> sst -> Prop) s :
  (forall r, Q r s) -> swp E (next_is_document_end str_ops) Q s.
Proof. intros H. apply swp_document_marker. intros r _. apply H. Qed.

Section PosBlock.
Variable orig : list chr.
Hypothesis no_nul : Forall (fun c => c <> 0%N) orig.
Notation pwp := (swp (true_mark orig)).
Notation MarkAt := (MarkAt orig).
Notation MarkOK := (MarkOK orig).
Notation upost := (upost orig).
Notation ppost := (ppost orig).

(* what every helper of this family establishes *)
Definition bpost (s : sst) {A} : A -> sst -> Prop := fun _ s' => MarkOK s' /\ pkeeps s s'.

Lemma pwp_unroll_nb pre (Q : unit -> sst -> Prop) s :
  MarkAt pre s -> (forall s', MarkAt pre s' -> rem s' = rem s -> Q tt s') ->
  pwp (@unroll_non_block_indents strin) Q s.
Proof using no_nul.
  intros HM HQ. unfold unroll_non_block_indents. apply swp_modify. destruct (unroll_nb _ _) as [ind l].
  apply HQ; [apply (markat_ext orig no_nul pre s _ HM); reflexivity|reflexivity].
Qed.

(* ---------------- (1) scan_block_scalar_content_line ----------------
   Loop 1 (buffered): invariant [MarkOK]; every character consumed was peeked and is not a break nor NUL.
     It ends with [bempty] or in front of a break / NUL.
   Loop 2 (raw fast path), entered in state [s1] with [MarkAt pre1 s1]: invariant
       rem s1 = w ++ rem s2,  sc_mark s2 = sc_mark s1,  no character of w is a break,  n = |w|;
     [raw_read] answers None only in front of a break or at the end; the final [adv_mark n] moves the mark over w.
   Postcondition: the reader stopped in front of a break or NUL. *)
Lemma pos_content_line F acc s : MarkOK s ->
  pwp (scan_block_scalar_content_line str_ops F acc)
      (fun _ s' => MarkOK s' /\ is_breakz (rnth s' 0) = true) s.
Proof using no_nul.
  intros HS. rewrite content_line_eq. apply swp_bind.
  assert (H1 : forall f acc1 s1, MarkOK s1 ->
            pwp (bs_go str_ops f acc1)
                (fun _ s' => MarkOK s' /\ (bempty s' = true \/ is_breakz (rnth s' 0) = true)) s1).
  { induction f as [|f IH]; intros acc1 s1 [pre1 M1]; [exact I|]. cbn [bs_go].
    apply swp_bind. apply swp_buf_is_empty_val. destruct (bempty s1) eqn:Eb.
    - apply swp_ret. split; [exists pre1; exact M1|left; exact Eb].
    - apply swp_bind. apply swp_peek. destruct (is_breakz (rnth s1 0)) eqn:Ez.
      + apply swp_ret. split; [exists pre1; exact M1|right; exact Ez].
      + apply swp_bind. apply (pwp_skip_plain_z orig no_nul (skip_blank str_ops) pre1); [left; reflexivity|exact M1|exact Ez|].
        intros s2 M2 _ _. apply IH. eexists; exact M2. }
  eapply swp_mono; [apply H1; exact HS|]. cbv beta. intros acc1 s1 (M1 & D1). clear H1.
  apply swp_bind. apply swp_buf_is_empty_val. destruct (bempty s1) eqn:Eb.
  - destruct M1 as [pre1 M1].
    assert (H2 : forall f acc2 w s2, rem s1 = w ++ rem s2 -> sc_mark s2 = sc_mark s1 ->
              Forall (fun c => is_break c = false) w ->
              pwp (bs_raw str_ops f acc2 (N.of_nat (length w)))
                  (fun _ s' => MarkOK s' /\ is_breakz (rnth s' 0) = true) s2).
    { induction f as [|f IH]; intros acc2 w s2 Hr Hm HF; [exact I|]. cbn [bs_raw].
      assert (Hend : is_breakz (rnth s2 0) = true ->
                pwp (bind (adv_mark (N.of_nat (length w))) (fun _ => ret acc2))
                    (fun _ s' => MarkOK s' /\ is_breakz (rnth s' 0) = true) s2).
      { intros Hz. apply swp_bind.
        apply (pwp_adv_mark_over orig no_nul pre1 w _ s1 s2); [exact M1|exact Hr|exact Hm|exact HF|].
        intros s' M' R' _. apply swp_ret. split; [eexists; exact M'|].
        rewrite (rnth_eq _ _ 0 R'). exact Hz. }
      apply swp_bind. apply swp_raw_read; [intros; exact I|].
      destruct (rem s2) as [|c r] eqn:R2.
      - lazy beta iota. apply Hend. unfold rnth. rewrite R2. reflexivity.
      - destruct (is_breakz c) eqn:Ec.
        + lazy beta iota. apply Hend. unfold rnth. rewrite R2. exact Ec.
        + intros s3 R3 I3. lazy beta iota. rewrite (of_nat_snoc w c). apply IH.
          * rewrite <- app_assoc. cbn [app]. rewrite R3. first [exact Hr|rewrite Hr, R2; reflexivity].
          * rewrite (inonly_mark s2 s3 I3). exact Hm.
          * apply Forall_app. split; [exact HF|]. constructor; [apply breakz_false_break; exact Ec|constructor]. }
    apply (H2 F acc1 [] s1); [reflexivity|reflexivity|constructor].
  - apply swp_ret. split; [exact M1|]. destruct D1 as [D|D]; [congruence|exact D].
Qed.

(* (2) skip_spaces_to: only characters that were peeked and are spaces *)
Lemma pos_skip_spaces_to indent cb : forall fuel s, MarkOK s -> pwp (skip_spaces_to str_ops fuel indent cb) (fun _ s' => MarkOK s') s.
Proof using no_nul.
  induction fuel as [|fuel IH]; intros s [pre HM]; [exact I|].
  cbn [skip_spaces_to]. apply swp_bind. apply swp_mono with (Q := fun _ s' => s' = s).
  { destruct cb; [apply swp_buf_is_empty; intros; reflexivity|apply swp_ret; reflexivity]. }
  intros e s' ->. apply swp_bind. unfold col. apply swp_gets.
  dif.
  { apply swp_ret. exists pre; exact HM. }
  apply swp_bind. apply swp_peek. destruct (N.eqb_spec (rnth s 0) 32) as [E32|N32].
  - apply swp_bind. apply (pwp_skip_plain_z orig no_nul (skip_blank str_ops) pre); [left; reflexivity|exact HM|rewrite E32; reflexivity|].
    intros s2 M2 R2 _. apply IH. eexists; exact M2.
  - apply swp_ret. exists pre; exact HM.
Qed.

(* (3) skip_block_scalar_indent: spaces, then line breaks that were just tested *)
Lemma pos_skip_bsi F indent : forall fuel breaks s,
  MarkOK s -> pwp (skip_block_scalar_indent str_ops F fuel indent breaks) (fun _ s' => MarkOK s') s.
Proof using no_nul.
  induction fuel as [|fuel IH]; intros breaks s [pre HM]; [exact I|].
  rewrite sbsi_eq. unfold bs_spp. change (bufmaxlen str_ops) with 128.
  apply swp_bind. destruct (Nat.ltb 128 2); [apply swp_panic|apply swp_ret].
  apply swp_bind. apply swp_mono with (Q := fun _ s1 => MarkOK s1).
  { destruct (N.ltb indent (N.of_nat (128 - 2))).
    - apply swp_bind. apply (pwp_look orig no_nul _ pre); [exact HM|]. intros s1 M1 R1 I1.
      apply pos_skip_spaces_to. exists pre; exact M1.
    - apply swp_bind.
      + assert (HW : forall f s1, MarkOK s1 -> pwp (bs_wide str_ops F indent f) (fun _ s' => MarkOK s') s1).
        { induction f as [|f IHf]; intros s1 [pre1 M1]; [exact I|]. cbn [bs_wide]. change (bufmaxlen str_ops) with 128.
          apply swp_bind. apply (pwp_look orig no_nul _ pre1); [exact M1|]. intros s2 M2 R2 I2.
          apply swp_bind. eapply swp_mono; [apply pos_skip_spaces_to; exists pre1; exact M2|]. intros u s3 M3. cbv beta in M3.
          apply swp_bind. unfold col. apply swp_gets. apply swp_bind. apply swp_buf_is_empty. intros e.
          apply swp_bind. apply swp_mono with (Q := fun _ s4 => s4 = s3).
          { destruct e; [apply swp_ret; reflexivity|apply swp_peek; reflexivity]. }
          intros c s4 ->.
          dif.
          - apply swp_ret. exact M3.
          - apply IHf. exact M3. }
        eapply swp_mono; [apply HW; exists pre; exact HM|]. intros u s1 [pre1 M1].
        apply (pwp_look orig no_nul _ pre1); [exact M1|]. intros s2 M2 R2 I2. exists pre1; exact M2. }
  intros u s1 [pre1 M1]. apply swp_bind. apply swp_next_is.
  destruct (is_break (rnth s1 0)) eqn:Eb.
  - apply swp_bind. apply (pwp_skip_break orig pre1); [exact M1|exact Eb|].
    intros s2 b rest Rb Ub Hb M2 R2 _. apply IH. eexists; exact M2.
  - apply swp_ret. exists pre1; exact M1.
Qed.

(* (4) skip_first_line_indent *)
Lemma pos_sfli F : forall fuel maxi breaks s,
  MarkOK s -> pwp (skip_first_line_indent str_ops F fuel maxi breaks) (fun _ s' => MarkOK s') s.
Proof using no_nul.
  induction fuel as [|fuel IH]; intros maxi breaks s HS; [exact I|].
  rewrite sfli_eq. apply swp_bind.
  assert (HSP : forall f s1, MarkOK s1 -> pwp (bs_sfl str_ops f) (fun _ s' => MarkOK s') s1).
  { induction f as [|f IHf]; intros s1 [pre1 M1]; [exact I|]. cbn [bs_sfl].
    apply swp_bind. apply (pwp_look_ch orig no_nul pre1); [exact M1|]. intros s2 M2 R2 I2.
    destruct (N.eqb_spec (rnth s2 0) 32) as [E32|N32].
    - apply swp_bind. apply (pwp_skip_plain_z orig no_nul (skip_blank str_ops) pre1); [left; reflexivity|exact M2|rewrite E32; reflexivity|].
      intros s3 M3 R3 _. apply IHf. eexists; exact M3.
    - apply swp_ret. exists pre1; exact M2. }
  eapply swp_mono; [apply HSP; exact HS|]. intros u s1 [pre1 M1]. clear HSP.
  apply swp_bind. unfold col. apply swp_gets. apply swp_bind. apply swp_next_is.
  destruct (is_break (rnth s1 0)) eqn:Eb.
  - apply swp_bind. apply (pwp_look orig no_nul _ pre1); [exact M1|]. intros s2 M2 R2 I2.
    apply swp_bind. apply (pwp_skip_break orig pre1); [exact M2|rewrite (rnth_eq _ _ 0 R2); exact Eb|].
    intros s3 b rest Rb Ub Hb M3 R3 _. apply IH. eexists; exact M3.
  - apply swp_ret. exists pre1; exact M1.
Qed.

(* (5) scan_block_scalar *)
Theorem pos_scan_block_scalar : forall F literal s,
  MarkOK s -> is_breakz (rnth s 0) = false -> pwp (scan_block_scalar str_ops F literal) (ppost s) s.
Proof using no_nul.
  intros F literal s [pre HM] Hnb. apply pwp_ppost; [apply ScanFrame.Fr_scan_block_scalar|]. unfold scan_block_scalar.
  apply swp_bind. unfold mark. apply swp_gets.
  assert (Tstart : true_mark orig (sc_mark s)) by (apply markok_true; exists pre; exact HM).
  (* the '|' or '>' *)
  apply swp_bind. apply (pwp_skip_plain_z orig no_nul (skip_non_blank str_ops) pre); [right; reflexivity|exact HM|exact Hnb|].
  intros s1 M1 R1 _.
  apply swp_bind. apply (pwp_unroll_nb _ _ s1 M1). intros s2 M2 R2.
  apply swp_bind. apply (pwp_look_ch orig no_nul _ _ s2 M2). intros s3 M3 R3 I3.
  (* the header: chomping and indentation indicators, in either order; each one consumed was peeked *)
  apply swp_bind. apply swp_mono with (Q := fun _ s4 => MarkOK s4).
  { destruct ((rnth s3 0 =? 43) || (rnth s3 0 =? 45))%N eqn:Epm.
    - apply swp_bind. eapply (pwp_skip_plain_z orig no_nul (skip_non_blank str_ops)); [right; reflexivity|exact M3|apply pm_not_breakz; exact Epm|].
      intros s4 M4 R4 _.
      apply swp_bind. apply (pwp_look orig no_nul _ _ _ s4 M4). intros s5 M5 R5 I5.
      apply swp_bind. apply swp_peek. destruct (is_digit (rnth s5 0)) eqn:Ed.
      + destruct (rnth s5 0 =? 48)%N; [apply swp_fail; exact Tstart|].
        apply swp_bind. eapply (pwp_skip_plain_z orig no_nul (skip_non_blank str_ops)); [right; reflexivity|exact M5|apply digit_not_breakz; exact Ed|].
        intros s6 M6 R6 _. apply swp_ret. eexists; exact M6.
      + apply swp_ret. eexists; exact M5.
    - destruct (is_digit (rnth s3 0)) eqn:Ed.
      + destruct (rnth s3 0 =? 48)%N; [apply swp_fail; exact Tstart|].
        apply swp_bind. eapply (pwp_skip_plain_z orig no_nul (skip_non_blank str_ops)); [right; reflexivity|exact M3|apply digit_not_breakz; exact Ed|].
        intros s4 M4 R4 _.
        apply swp_bind. apply (pwp_look orig no_nul _ _ _ s4 M4). intros s5 M5 R5 I5.
        apply swp_bind. apply swp_peek. destruct ((rnth s5 0 =? 43) || (rnth s5 0 =? 45))%N eqn:Epm2.
        * apply swp_bind. eapply (pwp_skip_plain_z orig no_nul (skip_non_blank str_ops)); [right; reflexivity|exact M5|apply pm_not_breakz; exact Epm2|].
          intros s6 M6 R6 _. apply swp_ret. eexists; exact M6.
        * apply swp_ret. eexists; exact M5.
      + apply swp_ret. eexists; exact M3. }
  intros [chomp increment] s4 M4. lazy beta iota.
  clear dependent s3. clear dependent s2. clear dependent s1.
  (* the rest of the header line *)
  apply swp_bind. eapply swp_mono; [apply (pos_skip_ws_to_eol orig no_nul); exact M4|]. intros tw s5 [[pre5 M5] _].
  apply swp_bind. apply (pwp_look orig no_nul _ _ _ s5 M5). intros s6 M6 R6 I6.
  apply swp_bind. apply swp_peek.
  destruct (is_breakz (rnth s6 0)) eqn:Ebz; cbn [negb]; [|apply swp_fail; exact Tstart].
  apply swp_bind. apply swp_mono with (Q := fun _ s7 => MarkOK s7).
  { destruct (is_break (rnth s6 0)) eqn:Eb.
    - apply swp_bind. apply (pwp_look orig no_nul _ _ _ s6 M6). intros s7 M7 R7 I7.
      apply swp_bind. apply (pwp_skip_break orig pre5); [exact M7|rewrite (rnth_eq _ _ 0 R7); exact Eb|].
      intros s8 b rest Rb Ub Hb M8 R8 _. apply swp_ret. eexists; exact M8.
    - apply swp_ret. eexists; exact M6. }
  clear dependent s6. clear dependent s5. clear dependent s4.
  intros cbreak s1 [pre1 M1].
  apply swp_bind. apply (pwp_look_ch orig no_nul _ _ s1 M1). intros s2 M2 R2 I2.
  destruct (rnth s2 0 =? 9)%N; [apply swp_fail; exact Tstart|].
  apply swp_bind. apply swp_get.
  (* the indentation of the first content line *)
  match goal with |- swp _ (bind (if N.eqb ?i 0 then _ else _) _) _ _ => set (indent0 := i) end.
  apply swp_bind. apply swp_mono with (Q := fun _ s3 => MarkOK s3).
  { destruct (N.eqb indent0 0).
    - apply swp_bind. eapply swp_mono; [apply pos_sfli; eexists; exact M2|]. intros r s3 M3.
      apply swp_ret. exact M3.
    - apply swp_bind. eapply swp_mono; [apply pos_skip_bsi; eexists; exact M2|]. intros r s3 M3.
      apply swp_ret. exact M3. }
  intros [indent tbreaks] s3 M3. lazy beta iota.
  apply swp_bind. apply swp_next_is. apply swp_bind. apply swp_get.
  destruct (is_z (rnth s3 0)).
  { (* end of stream: the token spans start .. current mark *)
    apply swp_ret. split; [exact M3|]. split; [exact Tstart|apply markok_true; exact M3]. }
  (* "wrongly indented" check *)
  apply swp_bind. apply swp_mono with (Q := fun _ s4 => MarkOK s4).
  { dif; [|apply swp_ret; assumption].
    destruct M3 as [pre3 M3].
    apply swp_bind. apply (pwp_look orig no_nul _ _ _ s3 M3). intros s4 M4 R4 I4.
    apply swp_bind. apply swp_next_is_document_indicator. intros di. apply swp_ret. eexists; exact M4. }
  intros wrong s4 M4. destruct wrong; [apply swp_fail; apply markok_true; exact M3|].
  apply swp_bind. apply swp_get.
  assert (Tcstart : true_mark orig (sc_mark s4)) by (apply markok_true; exact M4).
  (* the main loop: one content line per round *)
  apply swp_bind.
  match goal with |- swp _ (?g F [] 0%N tbreaks false) _ _ =>
    assert (Hgo : forall f acc lb tb ldb s5, MarkOK s5 -> pwp (g f acc lb tb ldb) (fun _ s' => MarkOK s') s5) end.
  { induction f as [|f IH]; intros acc lb tb ldb s5 [q5 M5]; [exact I|]. lazy beta iota.
    apply swp_bind. unfold col. apply swp_gets. apply swp_bind. apply swp_next_is.
    dif; [apply swp_ret; eexists; exact M5|].
    apply swp_bind. apply swp_mono with (Q := fun _ s6 => MarkOK s6).
    { destruct (N.eqb indent 0); [|apply swp_ret; eexists; exact M5].
      apply swp_bind. apply (pwp_look orig no_nul _ _ _ s5 M5). intros s6 M6 R6 I6.
      apply swp_next_is_document_indicator. intros r. eexists; exact M6. }
    intros de s6 M6. destruct de; [apply swp_ret; assumption|].
    apply swp_bind. apply swp_next_is. cbv zeta.
    apply swp_bind. eapply swp_mono; [apply pos_content_line; exact M6|]. cbv beta.
    intros acc1 s7 ([q7 M7] & Z7).
    apply swp_bind. apply (pwp_look orig no_nul _ _ _ s7 M7). intros s8 M8 R8 I8.
    apply swp_bind. apply swp_next_is.
    destruct (is_z (rnth s8 0)) eqn:Ez; [apply swp_ret; eexists; exact M8|].
    (* the reader stopped in front of a break or NUL, and it is not NUL: a break *)
    apply swp_bind. apply (pwp_skip_break orig q7); [exact M8|apply breakz_not_z; [rewrite (rnth_eq _ _ 0 R8); exact Z7|exact Ez]|].
    intros s9 b rest Rb Ub Hb M9 R9 _.
    apply swp_bind. eapply swp_mono; [apply pos_skip_bsi; eexists; exact M9|]. intros tb1 s10 M10.
    apply IH. exact M10. }
  eapply swp_mono; [apply Hgo; exact M4|]. clear Hgo. intros [[acc lb] tb] s5 M5. lazy beta iota.
  apply swp_bind. apply swp_next_is. apply swp_bind. unfold col. apply swp_gets.
  apply swp_bind. unfold mark. apply swp_gets. apply swp_ret.
  split; [exact M5|]. split; [exact Tcstart|apply markok_true; exact M5].
Qed.

End PosBlock.

Print Assumptions pos_scan_block_scalar.
