(* String input: flow, plain and block scalars (Model/SScalar.v) never panic and keep the skeleton.
   Site 110 ([debug_assert!(is_break(c))] in skip_break): every call is in front of a character that was just
   tested with [is_break] (or, in the block-scalar content loop, is the [is_breakz]-and-not-[is_z] character the
   content line stopped at); site 121 ([bufmaxlen < 2]) is a constant fact of the string back-end. *)
From Coq Require Import List NArith ZArith Bool Arith Lia.
Import ListNotations.
Require Import Parser SBase SPrim SDir SScalar SFetch ScanSafeStrWP ScanSafeStrPrim.
Local Open Scope nat_scope.

Local Notation st := (sc strin).
Local Notation M := (@SBase.M strin).

(* flow scalars *)
Lemma safe_read_hex start : forall n i acc k, safe k (read_hex sops n i acc start).
Proof. induction n as [|n IH]; intros i acc k; cbn [read_hex]; sgo. Qed.
#[export] Hint Resolve safe_read_hex : safedb.
Lemma safe_resolve_escape start k : safe k (resolve_escape sops start).
Proof. unfold resolve_escape. sgo. Qed.
#[export] Hint Resolve safe_resolve_escape : safedb.

Lemma safe_consume_nonws : forall fuel single acc start k, safe k (consume_nonws sops fuel single acc start).
Proof. induction fuel as [|fuel IH]; intros single acc start k; cbn [consume_nonws]; [apply safe_oof|]. sgo. Qed.

Lemma safe_flow_blanks : forall fuel lbl lb tb ws k, safe k (flow_blanks sops fuel lbl lb tb ws).
Proof.
  induction fuel as [|fuel IH]; intros lbl lb tb ws k; cbn [flow_blanks]; [apply safe_oof|].
  apply safe_peek_bind_val; intros c. hgo.
Qed.
#[export] Hint Resolve safe_consume_nonws safe_flow_blanks : safedb.

Theorem safe_scan_flow_scalar F single k : safe k (scan_flow_scalar sops F single).
Proof.
  unfold scan_flow_scalar. sstep; [sgo|]. sstep; [sgo|]. sstep; [|sgo].
  match goal with |- safe _ (?L F [] false 0%N []) => assert (HL : forall f a lb tb ws k, safe k (L f a lb tb ws)) end.
  { induction f as [|f IH]; intros a' lb tb ws k'; lazy beta iota; [apply safe_oof|]. sgo. }
  apply HL.
Qed.

(* plain scalars *)
Lemma safe_plain_chunk : forall fuel j acc k, safe k (plain_chunk sops fuel j acc).
Proof. induction fuel as [|fuel IH]; intros j acc k; cbn [plain_chunk]; [apply safe_oof|]. sgo. Qed.

Lemma safe_plain_blanks F : forall fuel indent start lb tb ws k, safe k (plain_blanks sops F fuel indent start lb tb ws).
Proof.
  induction fuel as [|fuel IH]; intros indent start lb tb ws k; cbn [plain_blanks]; [apply safe_oof|].
  apply safe_peek_bind_val; intros c. hgo.
Qed.
#[export] Hint Resolve safe_plain_chunk safe_plain_blanks : safedb.

Theorem safe_scan_plain_scalar F k : safe k (scan_plain_scalar sops F).
Proof.
  unfold scan_plain_scalar. sstep; [sgo|]. sstep; [sgo|]. sstep; [sgo|]. sstep; [|sgo].
  match goal with |- safe _ (?L F [] false 0%N [] ?m) =>
    assert (HL : forall f a lb tb ws e k, safe k (L f a lb tb ws e)) end.
  { induction f as [|f IH]; intros a' lb tb ws e k'; lazy beta iota; [apply safe_oof|]. sgo. }
  apply HL.
Qed.

(* block scalars *)
Lemma is_breakz_split c : is_breakz c = true -> is_z c = false -> is_break c = true.
Proof. unfold is_breakz. intros H E. rewrite E, orb_false_r in H. exact H. Qed.

(* the content line stops in front of a break or at the end of the input *)
Lemma safeQ_content_line F acc k :
  safeQ k (scan_block_scalar_content_line sops F acc) (fun c => is_breakz c = true).
Proof.
  intros s Hk. unfold scan_block_scalar_content_line. apply ws_bind.
  match goal with |- wps (?L F acc) _ _ =>
    assert (HL : forall f a s1, K s s1 ->
              wps (L f a) (fun _ s' => K s s' /\ (lk s' = 0 \/ is_breakz (c0 s') = true)) s1) end.
  { induction f as [|f IH]; intros a s1 K1; lazy beta iota; [exact I|].
    apply ws_bind, ws_buf_is_empty. destruct (Nat.eqb (lk s1) 0) eqn:E.
    { apply ws_ret. split; [exact K1|left; apply Nat.eqb_eq, E]. }
    apply ws_bind, ws_peek_val. destruct (is_breakz (c0 s1)) eqn:Ez.
    { apply ws_ret. split; [exact K1|right; exact Ez]. }
    apply ws_bind, ws_skip_blank. intros s2 K2 L2 _. apply IH.
    eapply K_trans; [exact K1|]. split; [exact K2|lia]. }
  eapply ws_mono; [apply HL, K_refl|]. intros acc1 s1 [K1 D]. cbv beta.
  apply ws_bind, ws_buf_is_empty. destruct (Nat.eqb (lk s1) 0) eqn:E.
  - match goal with |- wps (?L F acc1 0%N) _ _ =>
      assert (HR : forall f a n s2, K s s2 ->
                wps (L f a n) (fun _ s' => K s s' /\ is_breakz (c0 s') = true) s2) end.
    { induction f as [|f IH]; intros a n s2 K2; lazy beta iota; [exact I|].
      apply ws_bind, ws_raw_read. intros c s3 S3 L3 Hc.
      assert (K3 : K s s3) by (eapply K_trans; [exact K2|apply K_input; [exact S3|lia]]).
      destruct c as [c|]; [apply IH, K3|].
      apply ws_bind, ws_adv_mark. intros s4 K4 L4 C4. apply ws_ret. split.
      - eapply K_trans; [exact K3|]. split; [exact K4|lia].
      - unfold c0. rewrite C4. apply Hc. reflexivity. }
    apply HR, K1.
  - apply ws_ret. split; [exact K1|]. destruct D as [D|D]; [|exact D].
    apply Nat.eqb_neq in E. contradiction.
Qed.

Lemma safe_skip_spaces_to : forall fuel indent cb k, safe k (skip_spaces_to sops fuel indent cb).
Proof. induction fuel as [|fuel IH]; intros indent cb k; cbn [skip_spaces_to]; [apply safe_oof|]. sgo. Qed.
#[export] Hint Resolve safe_skip_spaces_to : safedb.

Lemma safe_skip_block_scalar_indent F : forall fuel indent breaks k, safe k (skip_block_scalar_indent sops F fuel indent breaks).
Proof.
  induction fuel as [|fuel IH]; intros indent breaks k; cbn [skip_block_scalar_indent]; [apply safe_oof|].
  apply safe_bind; [|intros _].
  { (* site 121: bufmaxlen = 128 *)
    destruct (Nat.ltb (bufmaxlen sops) 2) eqn:E; [|sgo]. apply safe_panic_absurd. vm_compute in E. discriminate E. }
  apply safe_bind; [|intros _].
  { destruct (_ <? _)%N; [sgo|].
    apply safe_bind; [|intros; sgo].
    match goal with |- safe _ (?L F) => assert (HL : forall f k, safe k (L f)) end.
    { induction f as [|f IHf]; intros k'; lazy beta iota; [apply safe_oof|]. sgo. }
    apply HL. }
  apply safe_next_is_bind_val; intros c. hgo.
Qed.

Lemma safe_skip_first_line_indent F : forall fuel maxi breaks k, safe k (skip_first_line_indent sops F fuel maxi breaks).
Proof.
  induction fuel as [|fuel IH]; intros maxi breaks k; cbn [skip_first_line_indent]; [apply safe_oof|].
  apply safe_bind; [|intros _].
  { match goal with |- safe _ (?L F) => assert (HL : forall f k, safe k (L f)) end.
    { induction f as [|f IHf]; intros k'; lazy beta iota; [apply safe_oof|]. sgo. }
    apply HL. }
  apply safe_bind; [sgo|intros col]. cbv zeta.
  apply safe_next_is_bind_val; intros c. hgo.
Qed.
#[export] Hint Resolve safe_skip_block_scalar_indent safe_skip_first_line_indent : safedb.

Theorem safe_scan_block_scalar F literal k : safe k (scan_block_scalar sops F literal).
Proof.
  unfold scan_block_scalar.
  apply safe_bind; [sgo|intros start]. cbv zeta.
  apply safe_bind; [sgo|intros _]. apply safe_bind; [sgo|intros _].
  apply safe_bind; [sgo|intros c].
  apply safe_bind; [sgo|intros hd]. destruct hd as [chomp increment].
  apply safe_bind; [sgo|intros _]. apply safe_look_bind; intros _.
  apply safe_peek_bind_val; intros c1.
  destruct (negb (is_breakz c1)); [apply safeH_weak; sgo|].
  apply safeH_bind; [hgo|intros cbreak].
  apply safe_bind; [sgo|intros c2]. destruct (c2 =? 9)%N; [sgo|].
  apply safe_bind; [sgo|intros s]. cbv zeta.
  apply safe_bind; [sgo|intros ib]. destruct ib as [indent tbreaks].
  apply safe_bind; [sgo|intros z]. apply safe_bind; [sgo|intros s1].
  destruct z; [sgo|].
  apply safe_bind; [sgo|intros wrong]. destruct wrong; [sgo|].
  apply safe_bind; [sgo|intros s2]. cbv zeta.
  apply safe_bind; [|intros r; sgo].
  match goal with |- safe _ (?L F [] 0%N tbreaks false) =>
    assert (HL : forall f a lb tb b k, safe k (L f a lb tb b)) end.
  { induction f as [|f IH]; intros a lb tb b k'; lazy beta iota; [apply safe_oof|].
    apply safe_bind; [sgo|intros col]. apply safe_bind; [sgo|intros z].
    destruct (negb (col =? indent)%N || z); [sgo|].
    apply safe_bind; [sgo|intros de]. destruct de; [sgo|].
    apply safe_bind; [sgo|intros trailing_blank]. cbv zeta.
    eapply safeQ_bind; [apply safeQ_content_line|intros acc1].
    apply safeH_look_bind; intros _.
    apply safeH_next_is_bind; intros c' Hc'. unfold is_z at 1.
    destruct (c' =? 0)%N eqn:Ez; [apply safeH_weak; sgo|].
    apply safeH_bind; [apply safeH_skip_break; intros ? <-; apply is_breakz_split; assumption|intros _].
    sgo. }
  apply HL.
Qed.

Print Assumptions safe_scan_flow_scalar.
Print Assumptions safe_scan_plain_scalar.
Print Assumptions safe_scan_block_scalar.
