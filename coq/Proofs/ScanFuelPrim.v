(* Joint proof "the scanner never exhausts its (linear) fuel" (see SCANFUEL.md): the whitespace / comment skipping
   family of Model/SPrim.v.
   Part (a): the rules in [fwp] form for the primitives and primitive loops of SPrim.v, on which the other
   ScanFuel*.v files build as well.  All of them are in
   continuation style: [ (forall a s', <facts about rl/lk/frem of s' relative to s> -> Q a s') -> fwp m Q s ].
   A loop rule takes the hypothesis [rl s < f] on the loop's own fuel argument f (from [fuel_ok F s]: [fuel_ok_lt]).
   Part (b): the three contracts fuel_skip_to_next_token, fuel_skip_ws_to_eol, fuel_skip_yaml_whitespace, each also
   in a sharper form (hypothesis [rl s < f] only; postcondition [sk_post]: additionally [1 <= lk s'], and for
   skip_ws_to_eol strict decrease when the first character is a blank that the loop takes). *)
From Coq Require Import List NArith ZArith Bool Arith Lia.
Import ListNotations.
Require Import Parser SBase SPrim SDir SScalar SFetch ScanFuel.
Local Open Scope nat_scope.

(* character classes *)
(* a predicate that rejects NUL only accepts characters that are really there *)
Lemma pred_nz (p : chr -> bool) c : p 0%N = false -> p c = true -> c <> 0%N.
Proof. intros H0 H E. subst c. congruence. Qed.
Lemma break_nz c : is_break c = true -> c <> 0%N.
Proof. apply pred_nz. reflexivity. Qed.
Lemma blank_nz c : is_blank c = true -> c <> 0%N.
Proof. apply pred_nz. reflexivity. Qed.
Lemma alpha_nz c : is_alpha c = true -> c <> 0%N.
Proof. apply pred_nz. reflexivity. Qed.
Lemma eqb_nz c k : (c =? k)%N = true -> k <> 0%N -> c <> 0%N.
Proof. intros H Hk. apply N.eqb_eq in H. subst c. exact Hk. Qed.
Lemma not_breakz_nz c : is_breakz c = false -> c <> 0%N.
Proof. intros H E. subst c. discriminate H. Qed.
Lemma not_blank_or_breakz_nz c : is_blank_or_breakz c = false -> c <> 0%N.
Proof. intros H E. subst c. discriminate H. Qed.

(* the measure under "same remaining input" *)
Lemma rl_eq s s' : frem s' = frem s -> rl s' = rl s.
Proof. unfold rl. intros ->. reflexivity. Qed.
Lemma fnth_eq s s' i : frem s' = frem s -> fnth s' i = fnth s i.
Proof. unfold fnth. intros ->. reflexivity. Qed.
Lemma fnth_nonzero_rl s i : fnth s i <> 0%N -> i < rl s.
Proof.
  intros H. destruct (Nat.lt_ge_cases i (rl s)) as [L|G]; [exact L|]. exfalso. apply H. unfold fnth. apply nth_overflow. exact G.
Qed.
(* consuming a character that is not NUL *)
Lemma tl_real s s' : fnth s 0 <> 0%N -> frem s' = tl (frem s) -> S (rl s') = rl s.
Proof. intros Hnz R. pose proof (fnth0_nonzero_rl s Hnz). rewrite (rl_tl s s' R). lia. Qed.
Lemma fuel_ok_lt F s : fuel_ok F s -> rl s < F.
Proof. unfold fuel_ok. lia. Qed.

(* "only the input changed" (same shape as the last hypothesis the framework's input rules provide) *)
Definition inonly (s s' : fst_) : Prop := s' = set_in (sc_in s') s.
Lemma inonly_refl s : inonly s s.
Proof. unfold inonly. destruct s; reflexivity. Qed.
Lemma inonly_trans a b c : inonly a b -> inonly b c -> inonly a c.
Proof.
  unfold inonly. intros H1 H2. transitivity (set_in (sc_in c) (set_in (sc_in b) a)); [rewrite <- H1; exact H2|reflexivity].
Qed.
Lemma inonly_mark s s' : inonly s s' -> sc_mark s' = sc_mark s.
Proof. intros H. rewrite H. reflexivity. Qed.
Ltac ino :=
  match goal with
  | |- inonly ?a ?a => apply inonly_refl
  | H : inonly ?a ?b |- inonly ?a ?b => exact H
  | H : ?b = set_in (sc_in ?b) ?a |- inonly ?a ?b => exact H
  | H : inonly ?a ?b |- inonly ?a ?c => apply (inonly_trans a b c H); ino
  | H : ?b = set_in (sc_in ?b) ?a |- inonly ?a ?c => apply (inonly_trans a b c H); ino
  end.

(* the postcondition of the skipping functions: [le_post], the lookahead counter is at least 1 at the exit (every
   exit is preceded by a [look_ch]), and - under the condition [strict] on the start state - something was consumed *)
Definition sk_post (s : fst_) (strict : Prop) (s' : fst_) : Prop :=
  rl s' <= rl s /\ lk s <= lk s' /\ 1 <= lk s' /\ (strict -> rl s' < rl s).
Lemma sk_post_le s P {A} (a : A) s' : sk_post s P s' -> le_post s a s'.
Proof. unfold sk_post, le_post. tauto. Qed.

(* composing contracts: a contract established from a later state is a contract from an earlier one *)
Lemma le_post_trans s0 s {A B} (a : A) (b : B) s' : le_post s0 a s -> le_post s b s' -> le_post s0 b s'.
Proof. unfold le_post. lia. Qed.
Lemma lt_le_post s0 s {A B} (a : A) (b : B) s' : lt_post s0 a s -> le_post s b s' -> lt_post s0 b s'.
Proof. unfold le_post, lt_post. lia. Qed.
Lemma le_lt_post s0 s {A B} (a : A) (b : B) s' : le_post s0 a s -> lt_post s b s' -> lt_post s0 b s'.
Proof. unfold le_post, lt_post. lia. Qed.
Lemma fwp_le_from {A} (m : FM A) s0 s : rl s <= rl s0 -> lk s0 <= lk s -> fwp m (le_post s) s -> fwp m (le_post s0) s.
Proof. intros H1 H2 H. eapply fwp_mono; [exact H|]. intros a s'. apply (le_post_trans s0 s tt). exact (conj H1 H2). Qed.
Lemma fwp_lt_from {A} (m : FM A) s0 s : rl s <= rl s0 -> lk s0 <= lk s -> fwp m (lt_post s) s -> fwp m (lt_post s0) s.
Proof. intros H1 H2 H. eapply fwp_mono; [exact H|]. intros a s'. apply (le_lt_post s0 s tt). exact (conj H1 H2). Qed.
Lemma fwp_lt_from_le {A} (m : FM A) s0 s : rl s < rl s0 -> lk s0 <= lk s -> fwp m (le_post s) s -> fwp m (lt_post s0) s.
Proof. intros H1 H2 H. eapply fwp_mono; [exact H|]. intros a s'. apply (lt_le_post s0 s tt). exact (conj H1 H2). Qed.

(* (a) rules for the primitives *)
(* in_skip on a character that is not NUL really consumes it *)
Lemma fwp_in_skip_real (Q : unit -> fst_ -> Prop) s :
  fnth s 0 <> 0%N ->
  (forall s', S (rl s') = rl s -> frem s' = tl (frem s) -> lk s' = lk s -> inonly s s' -> Q tt s') ->
  fwp (in_skip str_ops) Q s.
Proof. intros Hnz HQ. apply fwp_in_skip. intros s' R L I'. apply HQ; auto. apply tl_real; assumption. Qed.

(* lookahead, with the consequences spelled out: same input (hence same measure and same characters), counter raised *)
Lemma fwp_look_rl n (Q : unit -> fst_ -> Prop) s :
  (forall s', frem s' = frem s -> rl s' = rl s -> (forall i, fnth s' i = fnth s i) -> lk s <= lk s' -> n <= lk s' ->
              inonly s s' -> Q tt s') -> fwp (look str_ops n) Q s.
Proof.
  intros HQ. apply fwp_look. intros s' R L I'. apply HQ; [exact R|apply rl_eq; exact R|intros i; apply fnth_eq; exact R|lia|lia|exact I'].
Qed.
Lemma fwp_look_ch_rl (Q : chr -> fst_ -> Prop) s :
  (forall s', frem s' = frem s -> rl s' = rl s -> (forall i, fnth s' i = fnth s i) -> lk s <= lk s' -> 1 <= lk s' ->
              inonly s s' -> Q (fnth s 0) s') -> fwp (look_ch str_ops) Q s.
Proof.
  intros HQ. unfold look_ch. apply fwp_bind. apply fwp_look_rl. intros s' R D C L K I'. apply fwp_peek. rewrite C. apply HQ; assumption.
Qed.

(* state accessors: the state is untouched *)
Lemma fwp_mark (Q : marker -> fst_ -> Prop) s : Q (sc_mark s) s -> fwp (mark (I:=strin)) Q s.
Proof. intros H. exact H. Qed.
Lemma fwp_col (Q : N -> fst_ -> Prop) s : Q (m_col (sc_mark s)) s -> fwp (col (I:=strin)) Q s.
Proof. intros H. exact H. Qed.
Lemma fwp_flow_level (Q : N -> fst_ -> Prop) s : Q (sc_flow_level s) s -> fwp (flow_level (I:=strin)) Q s.
Proof. intros H. exact H. Qed.
Lemma fwp_in_flow (Q : bool -> fst_ -> Prop) s : Q (0 <? sc_flow_level s)%N s -> fwp (in_flow (I:=strin)) Q s.
Proof. intros H. exact H. Qed.
Lemma fwp_is_within_block (Q : bool -> fst_ -> Prop) s :
  Q (match sc_indents s with [] => false | _ => true end) s -> fwp (is_within_block (I:=strin)) Q s.
Proof. intros H. exact H. Qed.

(* an update that leaves the input alone; the mark and flag setters are instances *)
Lemma fwp_modify_in f (Q : unit -> fst_ -> Prop) s :
  sc_in (f s) = sc_in s -> (forall s', frem s' = frem s -> lk s' = lk s -> Q tt s') -> fwp (modify f) Q s.
Proof. intros Hin HQ. apply fwp_modify. apply HQ; [unfold frem|unfold lk]; rewrite Hin; reflexivity. Qed.
Lemma fwp_adv_mark n (Q : unit -> fst_ -> Prop) s :
  (forall s', frem s' = frem s -> lk s' = lk s -> Q tt s') -> fwp (adv_mark (I:=strin) n) Q s.
Proof. apply fwp_modify_in. reflexivity. Qed.
Lemma fwp_allow_simple_key (Q : unit -> fst_ -> Prop) s :
  (forall s', frem s' = frem s -> lk s' = lk s -> Q tt s') -> fwp (allow_simple_key (I:=strin)) Q s.
Proof. apply fwp_modify_in. reflexivity. Qed.
Lemma fwp_disallow_simple_key (Q : unit -> fst_ -> Prop) s :
  (forall s', frem s' = frem s -> lk s' = lk s -> Q tt s') -> fwp (disallow_simple_key (I:=strin)) Q s.
Proof. apply fwp_modify_in. reflexivity. Qed.
Lemma fwp_set_lws b (Q : unit -> fst_ -> Prop) s :
  (forall s', frem s' = frem s -> lk s' = lk s -> Q tt s') -> fwp (modify (set_lws (I:=strin) b)) Q s.
Proof. apply fwp_modify_in. reflexivity. Qed.
Lemma fwp_unroll_non_block_indents (Q : unit -> fst_ -> Prop) s :
  (forall s', frem s' = frem s -> lk s' = lk s -> Q tt s') -> fwp (unroll_non_block_indents (I:=strin)) Q s.
Proof. apply fwp_modify_in. destruct (unroll_nb (sc_indents s) (sc_indent s)) as [ind l]. reflexivity. Qed.

(* pure look-at-the-input tests: the state is unchanged (they may panic on a short buffer: not our concern) *)
Lemma fwp_next_is p (Q : bool -> fst_ -> Prop) s : Q (p (fnth s 0)) s -> fwp (next_is str_ops p) Q s.
Proof. intros H. exact H. Qed.
Lemma fwp_next_char_is c (Q : bool -> fst_ -> Prop) s : Q (fnth s 0 =? c)%N s -> fwp (next_char_is str_ops c) Q s.
Proof. intros H. exact H. Qed.
Lemma fwp_nth_char_is n c (Q : bool -> fst_ -> Prop) s : Q (fnth s n =? c)%N s -> fwp (nth_char_is str_ops n c) Q s.
Proof. intros H. exact H. Qed.
Lemma fwp_next_2_are a b (Q : bool -> fst_ -> Prop) s :
  Q ((fnth s 0 =? a) && (fnth s 1 =? b))%N s -> fwp (next_2_are str_ops a b) Q s.
Proof.
  intros H. unfold next_2_are. apply fwp_bind. apply fwp_assert_buflen. apply fwp_bind. apply fwp_peek.
  apply fwp_bind. apply fwp_peekn. apply fwp_ret. exact H.
Qed.
Lemma fwp_next_3_are a b c (Q : bool -> fst_ -> Prop) s :
  Q ((fnth s 0 =? a) && (fnth s 1 =? b) && (fnth s 2 =? c))%N s -> fwp (next_3_are str_ops a b c) Q s.
Proof.
  intros H. unfold next_3_are. apply fwp_bind. apply fwp_assert_buflen. apply fwp_bind. apply fwp_peek.
  apply fwp_bind. apply fwp_peekn. apply fwp_bind. apply fwp_peekn. apply fwp_ret. exact H.
Qed.
Lemma fwp_next_is_document_indicator (Q : bool -> fst_ -> Prop) s :
  (forall b, Q b s) -> fwp (next_is_document_indicator str_ops) Q s.
Proof.
  intros H. unfold next_is_document_indicator. apply fwp_bind. apply fwp_assert_buflen. apply fwp_bind. apply fwp_peekn.
  dif; [|apply fwp_ret; apply H].
  apply fwp_bind. apply fwp_next_3_are. dif; [apply fwp_ret|apply fwp_next_3_are]; apply H.
Qed.
(* next_is_document_start and next_is_document_end: three times the character [c], then a blank, a break or NUL *)
Lemma fwp_document_marker site c (Q : bool -> fst_ -> Prop) s :
  (forall b, Q b s) ->
  fwp (bind (assert_buflen str_ops 4 site) (fun _ => bind (next_3_are str_ops c c c) (fun d =>
         if d then bind (peekn str_ops 3) (fun c3 => ret (is_blank_or_breakz c3)) else ret false))) Q s.
Proof.
  intros H. apply fwp_bind. apply fwp_assert_buflen. apply fwp_bind. apply fwp_next_3_are.
  dif; [apply fwp_bind; apply fwp_peekn|]; apply fwp_ret; apply H.
Qed.
Lemma fwp_next_is_document_start (Q : bool -> fst_ -> Prop) s :
  (forall b, Q b s) -> fwp (next_is_document_start str_ops) Q s.
Proof. apply fwp_document_marker. Qed.
Lemma fwp_next_is_document_end (Q : bool -> fst_ -> Prop) s :
  (forall b, Q b s) -> fwp (next_is_document_end str_ops) Q s.
Proof. apply fwp_document_marker. Qed.
(* [true] is only returned on a character that is not blank / break / NUL ... unless it is not ':' etc.: the callers
   that need "the character is real" test [is_blank_or_breakz] themselves, so only the value is exposed *)
Lemma fwp_next_can_be_plain_scalar fl (Q : bool -> fst_ -> Prop) s :
  Q (if ((fnth s 0 =? 58) && (is_blank_or_breakz (fnth s 1) || (fl && is_flow (fnth s 1))))%N then false
     else if fl && is_flow (fnth s 0) then false else true) s ->
  fwp (next_can_be_plain_scalar str_ops fl) Q s.
Proof.
  intros H. unfold next_can_be_plain_scalar. apply fwp_bind. apply fwp_peekn. apply fwp_bind. apply fwp_peek.
  dif; [apply fwp_ret; exact H|]. dif; apply fwp_ret; exact H.
Qed.

(* the one-character skips.  General form ([rl s - 1] is truncated subtraction) and the form for a character that is
   known not to be NUL (the measure decreases by exactly one) *)
Lemma fwp_skip_blank (Q : unit -> fst_ -> Prop) s :
  (forall s', rl s' = rl s - 1 -> frem s' = tl (frem s) -> lk s' = lk s -> Q tt s') -> fwp (skip_blank str_ops) Q s.
Proof.
  intros HQ. unfold skip_blank. apply fwp_bind. apply fwp_in_skip. intros s1 R1 L1 _. apply fwp_adv_mark. intros s2 R2 L2.
  apply HQ; [rewrite (rl_eq _ _ R2); apply rl_tl; exact R1|congruence|congruence].
Qed.
Lemma fwp_skip_non_blank (Q : unit -> fst_ -> Prop) s :
  (forall s', rl s' = rl s - 1 -> frem s' = tl (frem s) -> lk s' = lk s -> Q tt s') -> fwp (skip_non_blank str_ops) Q s.
Proof.
  intros HQ. unfold skip_non_blank. apply fwp_bind. apply fwp_in_skip. intros s1 R1 L1 _. apply fwp_bind. apply fwp_adv_mark.
  intros s2 R2 L2. apply fwp_set_lws. intros s3 R3 L3.
  apply HQ; [rewrite (rl_eq _ _ R3), (rl_eq _ _ R2); apply rl_tl; exact R1|congruence|congruence].
Qed.
Lemma fwp_skip_nl (Q : unit -> fst_ -> Prop) s :
  (forall s', rl s' = rl s - 1 -> frem s' = tl (frem s) -> lk s' = lk s -> Q tt s') -> fwp (skip_nl str_ops) Q s.
Proof.
  intros HQ. unfold skip_nl. apply fwp_bind. apply fwp_in_skip. intros s1 R1 L1 _. apply fwp_modify_in; [reflexivity|].
  intros s2 R2 L2. apply HQ; [rewrite (rl_eq _ _ R2); apply rl_tl; exact R1|congruence|congruence].
Qed.
Lemma fwp_skip_blank_real (Q : unit -> fst_ -> Prop) s :
  fnth s 0 <> 0%N -> (forall s', S (rl s') = rl s -> frem s' = tl (frem s) -> lk s' = lk s -> Q tt s') -> fwp (skip_blank str_ops) Q s.
Proof. intros Hnz HQ. apply fwp_skip_blank. intros s' _ R L. apply HQ; auto. apply tl_real; assumption. Qed.
Lemma fwp_skip_non_blank_real (Q : unit -> fst_ -> Prop) s :
  fnth s 0 <> 0%N -> (forall s', S (rl s') = rl s -> frem s' = tl (frem s) -> lk s' = lk s -> Q tt s') -> fwp (skip_non_blank str_ops) Q s.
Proof. intros Hnz HQ. apply fwp_skip_non_blank. intros s' _ R L. apply HQ; auto. apply tl_real; assumption. Qed.
Lemma fwp_skip_nl_real (Q : unit -> fst_ -> Prop) s :
  fnth s 0 <> 0%N -> (forall s', S (rl s') = rl s -> frem s' = tl (frem s) -> lk s' = lk s -> Q tt s') -> fwp (skip_nl str_ops) Q s.
Proof. intros Hnz HQ. apply fwp_skip_nl. intros s' _ R L. apply HQ; auto. apply tl_real; assumption. Qed.
(* n characters at once; [rl s - n] is truncated subtraction: with [fnth s (n-1) <> 0] (fnth_nonzero_rl) n <= rl s *)
Lemma fwp_skip_n_non_blank n (Q : unit -> fst_ -> Prop) s :
  (forall s', rl s' = rl s - n -> frem s' = skipn n (frem s) -> lk s' = lk s -> Q tt s') -> fwp (skip_n_non_blank str_ops n) Q s.
Proof.
  intros HQ. unfold skip_n_non_blank. apply fwp_bind. apply fwp_in_skip_n. intros s1 R1 L1 _. apply fwp_bind. apply fwp_adv_mark.
  intros s2 R2 L2. apply fwp_set_lws. intros s3 R3 L3. apply HQ; [|congruence|congruence].
  rewrite (rl_eq _ _ R3), (rl_eq _ _ R2). apply rl_skipn. exact R1.
Qed.

(* skip_linebreak: consumes a break if there is one (CR LF as a unit), otherwise nothing *)
Lemma fwp_skip_linebreak (Q : unit -> fst_ -> Prop) s :
  (forall s', rl s' <= rl s -> lk s' = lk s -> (is_break (fnth s 0) = true -> rl s' < rl s) -> Q tt s') ->
  fwp (skip_linebreak str_ops) Q s.
Proof.
  intros HQ. unfold skip_linebreak. apply fwp_bind. apply fwp_next_2_are. difE Ecrlf.
  - apply andb_true_iff in Ecrlf as [E13 _]. apply N.eqb_eq in E13.
    apply fwp_bind. apply fwp_skip_blank_real; [rewrite E13; discriminate|]. intros s1 D1 _ L1.
    apply fwp_skip_nl. intros s2 D2 _ L2. apply HQ; [lia|congruence|intros _; lia].
  - apply fwp_bind. apply fwp_peek. destruct (is_break (fnth s 0)) eqn:Eb.
    + apply fwp_skip_nl_real; [apply break_nz; exact Eb|]. intros s1 D1 _ L1.
      apply HQ; [lia|exact L1|intros _; lia].
    + apply fwp_ret. apply HQ; [lia|reflexivity|discriminate].
Qed.

(* skip_break: panics (debug_assert) unless a break is there; consumes it *)
Lemma fwp_skip_break (Q : unit -> fst_ -> Prop) s :
  (is_break (fnth s 0) = true -> forall s', rl s' < rl s -> lk s' = lk s -> Q tt s') -> fwp (skip_break str_ops) Q s.
Proof.
  intros HQ. unfold skip_break. apply fwp_bind. apply fwp_peek. apply fwp_bind. apply fwp_peekn.
  destruct (is_break (fnth s 0)) eqn:Eb; [|apply fwp_bind; apply fwp_panic].
  specialize (HQ eq_refl). pose proof (break_nz _ Eb) as Hnz.
  apply fwp_bind. apply fwp_ret. apply fwp_bind. dif.
  - apply fwp_skip_blank_real; [exact Hnz|]. intros s1 D1 _ L1.
    apply fwp_skip_nl. intros s2 D2 _ L2. apply HQ; [lia|congruence].
  - apply fwp_ret. apply fwp_skip_nl_real; [exact Hnz|]. intros s1 D1 _ L1. apply HQ; [lia|exact L1].
Qed.

(* the primitive loops *)
(* in_skip_while p (p rejects NUL): ends within fuel f > rl s; at the exit the next character fails p *)
Lemma fwp_in_skip_while f p (Q : N -> fst_ -> Prop) s :
  p 0%N = false -> rl s < f ->
  (forall k s', rl s' <= rl s -> lk s <= lk s' -> 1 <= lk s' -> (p (fnth s 0) = true -> rl s' < rl s) ->
                p (fnth s' 0) = false -> inonly s s' -> Q k s') ->
  fwp (in_skip_while str_ops f p) Q s.
Proof.
  intros Hp Hf HQ. unfold in_skip_while.
  match goal with |- fwp (?L f 0%N) _ _ =>
    assert (HL : forall g k s1, rl s1 < g ->
              fwp (L g k) (fun _ s' => sk_post s1 (p (fnth s1 0) = true) s' /\ p (fnth s' 0) = false /\ inonly s1 s') s1) end.
  { induction g as [|g IHg]; intros k s1 Hg; [exfalso; lia|]. lazy beta iota.
    apply fwp_bind. apply fwp_look_ch_rl. intros s2 _ D2 C2 L2 K2 I2.
    destruct (p (fnth s1 0)) eqn:Ep.
    - apply fwp_bind. apply fwp_in_skip_real; [rewrite C2; apply (pred_nz p); assumption|]. intros s3 D3 R3 L3 I3.
      eapply fwp_mono; [apply IHg; lia|]. cbv beta. intros _ s' [P [E' I']].
      split; [|split; [exact E'|ino]]. unfold sk_post in *. lia.
    - apply fwp_ret. split; [|split; [rewrite C2; exact Ep|ino]]. unfold sk_post. repeat split; try lia; discriminate. }
  eapply fwp_mono; [apply HL; exact Hf|]. cbv beta. intros k s' [[P1 [P2 [P3 P4]]] [E' I']]. apply HQ; assumption.
Qed.
Lemma fwp_in_skip_while_non_breakz f (Q : N -> fst_ -> Prop) s :
  rl s < f ->
  (forall k s', rl s' <= rl s -> lk s <= lk s' -> 1 <= lk s' -> (is_breakz (fnth s 0) = false -> rl s' < rl s) ->
                is_breakz (fnth s' 0) = true -> inonly s s' -> Q k s') ->
  fwp (in_skip_while_non_breakz str_ops f) Q s.
Proof.
  intros Hf HQ. unfold in_skip_while_non_breakz. apply fwp_in_skip_while; [reflexivity|exact Hf|].
  intros k s' P1 P2 P3 P4 E' I'. apply HQ; try assumption.
  - intros Z. apply P4. rewrite Z. reflexivity.
  - apply negb_false_iff. exact E'.
Qed.
(* a comment: the rest of the line, then the mark is advanced by the count *)
Lemma fwp_skip_non_breakz_adv {B} f (k : FM B) (Q : B -> fst_ -> Prop) s :
  rl s < f ->
  (forall s', rl s' <= rl s -> lk s <= lk s' -> (is_breakz (fnth s 0) = false -> rl s' < rl s) -> fwp k Q s') ->
  fwp (bind (in_skip_while_non_breakz str_ops f) (fun n => bind (adv_mark n) (fun _ => k))) Q s.
Proof.
  intros Hf HQ. apply fwp_bind. apply fwp_in_skip_while_non_breakz; [exact Hf|]. intros n s1 P1 P2 _ P4 _ _.
  apply fwp_bind. apply fwp_adv_mark. intros s2 R2 L2. apply HQ; rewrite ?(rl_eq _ _ R2), ?L2; assumption.
Qed.
Lemma fwp_in_skip_while_blank f (Q : N -> fst_ -> Prop) s :
  rl s < f ->
  (forall k s', rl s' <= rl s -> lk s <= lk s' -> 1 <= lk s' -> (is_blank (fnth s 0) = true -> rl s' < rl s) ->
                is_blank (fnth s' 0) = false -> inonly s s' -> Q k s') ->
  fwp (in_skip_while_blank str_ops f) Q s.
Proof. intros Hf HQ. unfold in_skip_while_blank. apply fwp_in_skip_while; [reflexivity|exact Hf|exact HQ]. Qed.

Lemma fwp_in_fetch_while_alpha f acc (Q : list chr * N -> fst_ -> Prop) s :
  rl s < f ->
  (forall r s', rl s' <= rl s -> lk s <= lk s' -> 1 <= lk s' -> (is_alpha (fnth s 0) = true -> rl s' < rl s) ->
                is_alpha (fnth s' 0) = false -> inonly s s' -> Q r s') ->
  fwp (in_fetch_while_alpha str_ops f acc) Q s.
Proof.
  intros Hf HQ. unfold in_fetch_while_alpha.
  match goal with |- fwp (?L f acc 0%N) _ _ =>
    assert (HL : forall g a k s1, rl s1 < g ->
              fwp (L g a k) (fun _ s' => sk_post s1 (is_alpha (fnth s1 0) = true) s' /\ is_alpha (fnth s' 0) = false /\ inonly s1 s') s1) end.
  { induction g as [|g IHg]; intros a k s1 Hg; [exfalso; lia|]. lazy beta iota.
    apply fwp_bind. apply fwp_look_ch_rl. intros s2 _ D2 C2 L2 K2 I2.
    destruct (is_alpha (fnth s1 0)) eqn:Ep.
    - apply fwp_bind. apply fwp_in_skip_real; [rewrite C2; apply alpha_nz; assumption|]. intros s3 D3 R3 L3 I3.
      eapply fwp_mono; [apply IHg; lia|]. cbv beta. intros _ s' [P [E' I']].
      split; [|split; [exact E'|ino]]. unfold sk_post in *. lia.
    - apply fwp_ret. split; [|split; [rewrite C2; exact Ep|ino]]. unfold sk_post. repeat split; try lia; discriminate. }
  eapply fwp_mono; [apply HL; exact Hf|]. cbv beta. intros r s' [[P1 [P2 [P3 P4]]] [E' I']]. apply HQ; assumption.
Qed.

(* in_skip_ws_to_eol with its nested comment loop.  [eol_strict]: the first character is one the loop takes *)
Definition eol_strict (st : skiptabs) (c : chr) : Prop := c = 32%N \/ (c = 9%N /\ st = SkipYes).

Lemma in_skip_ws_to_eol_fuel : forall f st tab ws n s, rl s < f ->
  fwp (in_skip_ws_to_eol str_ops f st tab ws n) (fun _ s' => sk_post s (eol_strict st (fnth s 0)) s' /\ inonly s s') s.
Proof.
  induction f as [|f IH]; intros st tab ws n s Hf; [exfalso; lia|].
  cbn [in_skip_ws_to_eol].
  apply fwp_bind. apply fwp_look_ch. intros s1 R1 L1 I1.
  pose proof (rl_eq _ _ R1) as D1. pose proof (fnth_eq _ _ 0 R1) as C1.
  (* a consumed character followed by a callee that only consumes *)
  assert (STEP : forall s2 s', S (rl s2) = rl s1 -> lk s2 = lk s1 -> inonly s1 s2 ->
            sk_post s2 False s' /\ inonly s2 s' -> sk_post s (eol_strict st (fnth s 0)) s' /\ inonly s s').
  { intros s2 s' D2 L2 I2 [P I']. split; [|ino]. unfold sk_post in *. lia. }
  destruct (N.eqb_spec (fnth s1 0) 32) as [E32|N32].
  { apply fwp_bind. apply fwp_in_skip_real; [rewrite E32; discriminate|]. intros s2 D2 R2 L2 I2.
    eapply fwp_mono; [apply IH; lia|]. cbv beta. intros _ s' [P I']. apply (STEP s2 s'); auto.
    split; [|exact I']. unfold sk_post in *. tauto. }
  difE E9.
  { apply andb_true_iff in E9 as [E9 _]. apply N.eqb_eq in E9.
    apply fwp_bind. apply fwp_in_skip_real; [rewrite E9; discriminate|]. intros s2 D2 R2 L2 I2.
    eapply fwp_mono; [apply IH; lia|]. cbv beta. intros _ s' [P I']. apply (STEP s2 s'); auto.
    split; [|exact I']. unfold sk_post in *. tauto. }
  assert (NOSTRICT : ~ eol_strict st (fnth s 0)).
  { rewrite <- C1. intros [E|[E Est]]; [contradiction|]. rewrite E, Est in E9. discriminate E9. }
  assert (STOP : sk_post s (eol_strict st (fnth s 0)) s1 /\ inonly s s1).
  { split; [|ino]. unfold sk_post. repeat split; try lia. intros X. contradiction. }
  destruct (N.eqb_spec (fnth s1 0) 35) as [E35|N35]; [|apply fwp_ret; exact STOP].
  destruct (negb tab && negb ws); [apply fwp_ret; exact STOP|].
  apply fwp_bind. apply fwp_in_skip_real; [rewrite E35; discriminate|]. intros s2 D2 R2 L2 I2.
  match goal with |- fwp (?L f n) _ _ =>
    assert (HL : forall g k s3, rl s3 < g -> rl s3 < f ->
              fwp (L g k) (fun _ s' => sk_post s3 False s' /\ inonly s3 s') s3) end.
  { induction g as [|g IHg]; intros k s3 Hg Hf3; [exfalso; lia|]. lazy beta iota.
    apply fwp_bind. apply fwp_look_ch. intros s4 R4 L4 I4.
    pose proof (rl_eq _ _ R4) as D4.
    destruct (is_breakz (fnth s4 0)) eqn:Z4.
    - eapply fwp_mono; [apply IH; lia|]. cbv beta. intros _ s' [P I']. split; [|ino]. unfold sk_post in *. lia.
    - apply fwp_bind. apply fwp_in_skip_real; [apply not_breakz_nz; exact Z4|]. intros s5 D5 R5 L5 I5.
      eapply fwp_mono; [apply IHg; lia|]. cbv beta. intros _ s' [P I']. split; [|ino]. unfold sk_post in *. lia. }
  eapply fwp_mono; [apply HL; lia|]. cbv beta. intros _ s' H. apply (STEP s2 s'); auto.
Qed.

Lemma fwp_in_skip_ws_to_eol f st tab ws n (Q : N * option (bool * bool) -> fst_ -> Prop) s :
  rl s < f ->
  (forall r s', rl s' <= rl s -> lk s <= lk s' -> 1 <= lk s' -> (eol_strict st (fnth s 0) -> rl s' < rl s) ->
                inonly s s' -> Q r s') ->
  fwp (in_skip_ws_to_eol str_ops f st tab ws n) Q s.
Proof.
  intros Hf HQ. eapply fwp_mono; [apply in_skip_ws_to_eol_fuel; exact Hf|]. cbv beta.
  intros r s' [[P1 [P2 [P3 P4]]] I']. apply HQ; assumption.
Qed.

(* (b) the contracts *)
(* skip_ws_to_eol: sharper form (fuel hypothesis [rl s < f]; strict when the first character is taken) *)
Theorem skip_ws_to_eol_lt : forall f stb s, rl s < f ->
  fwp (skip_ws_to_eol str_ops f stb) (fun _ s' => sk_post s (eol_strict stb (fnth s 0)) s') s.
Proof.
  intros f stb s Hf. unfold skip_ws_to_eol.
  apply fwp_bind. apply fwp_in_skip_ws_to_eol; [exact Hf|]. intros r s1 P1 P2 P3 P4 I1.
  apply fwp_bind. apply fwp_adv_mark. intros s2 R2 L2.
  pose proof (rl_eq _ _ R2) as D2.
  destruct (snd r) as [tw|].
  - apply fwp_ret. unfold sk_post. rewrite D2, L2. tauto.
  - apply fwp_bind. apply fwp_mark. apply fwp_fail.
Qed.

(* continuation form for the callers *)
Lemma fwp_skip_ws_to_eol f stb (Q : bool * bool -> fst_ -> Prop) s :
  rl s < f ->
  (forall r s', rl s' <= rl s -> lk s <= lk s' -> 1 <= lk s' -> (eol_strict stb (fnth s 0) -> rl s' < rl s) -> Q r s') ->
  fwp (skip_ws_to_eol str_ops f stb) Q s.
Proof.
  intros Hf HQ. eapply fwp_mono; [apply skip_ws_to_eol_lt; exact Hf|]. cbv beta.
  intros r s' [P1 [P2 [P3 P4]]]. apply HQ; assumption.
Qed.

Theorem skip_ws_to_eol_ok : fuel_skip_ws_to_eol.
Proof.
  intros F stb s HF. eapply fwp_mono; [apply skip_ws_to_eol_lt; apply fuel_ok_lt; exact HF|].
  intros a s'. apply sk_post_le.
Qed.

(* skip_to_next_token: the inner loops are started with the CURRENT fuel of the outer loop, and every iteration of
   the outer loop but the last consumes at least one character: [rl s < f] is invariant *)
Theorem skip_to_next_token_lt : forall f s, rl s < f ->
  fwp (skip_to_next_token str_ops f) (fun _ s' => sk_post s False s') s.
Proof.
  induction f as [|f IHf]; intros s Hf; [exfalso; lia|].
  cbn [skip_to_next_token].
  apply fwp_bind. apply fwp_look_ch. intros s1 R1 L1 I1.
  pose proof (rl_eq _ _ R1) as D1.
  apply fwp_bind. apply fwp_get. apply fwp_bind. apply fwp_is_within_block.
  (* a callee state that has consumed, then the rest of the loop *)
  assert (NEXT : forall s2, rl s2 < rl s1 -> lk s1 <= lk s2 ->
            fwp (skip_to_next_token str_ops f) (fun _ s' => sk_post s False s') s2).
  { intros s2 D2 L2. eapply fwp_mono; [apply IHf; lia|]. cbv beta. intros _ s'. unfold sk_post. lia. }
  difE Etab.
  { (* a tab in the indentation *)
    assert (E9 : fnth s1 0 = 9%N).
    { apply andb_true_iff in Etab as [Etab _]. apply andb_true_iff in Etab as [Etab _].
      apply andb_true_iff in Etab as [Etab _]. apply N.eqb_eq. exact Etab. }
    apply fwp_bind. apply fwp_skip_ws_to_eol; [lia|]. intros tw s2 P1 P2 P3 P4.
    assert (D2 : rl s2 < rl s1) by (apply P4; right; split; [exact E9|reflexivity]).
    apply fwp_bind. apply fwp_next_is.
    destruct (is_breakz (fnth s2 0)).
    - apply NEXT; assumption.
    - apply fwp_bind. apply fwp_mark. apply fwp_fail. }
  difE Ebl.
  { (* tab or space *)
    assert (Hnz : fnth s1 0 <> 0%N).
    { apply orb_true_iff in Ebl as [E|E]; apply N.eqb_eq in E; rewrite E; discriminate. }
    apply fwp_bind. apply fwp_skip_blank_real; [exact Hnz|]. intros s2 D2 R2 L2. apply NEXT; lia. }
  difE Ebr.
  { (* a line break *)
    apply fwp_bind. apply fwp_look. intros s2 R2 L2 I2.
    pose proof (rl_eq _ _ R2) as D2. pose proof (fnth_eq _ _ 0 R2) as C2.
    apply fwp_bind. apply fwp_skip_linebreak. intros s3 P1 L3 P3.
    assert (D3 : rl s3 < rl s2) by (apply P3; rewrite C2; exact Ebr).
    apply fwp_bind. apply fwp_flow_level. apply fwp_bind.
    destruct (sc_flow_level s3 =? 0)%N.
    - apply fwp_allow_simple_key. intros s4 R4 L4. apply NEXT; [rewrite (rl_eq _ _ R4)|]; lia.
    - apply fwp_ret. apply NEXT; lia. }
  difE E35.
  { (* a comment *)
    apply N.eqb_eq in E35.
    apply fwp_skip_non_breakz_adv; [lia|]. intros s2 P1 P2 P4.
    apply NEXT; [apply P4; rewrite E35; reflexivity|exact P2]. }
  apply fwp_ret. unfold sk_post. lia.
Qed.

Theorem skip_to_next_token_ok : fuel_skip_to_next_token.
Proof.
  intros F s HF. eapply fwp_mono; [apply skip_to_next_token_lt; apply fuel_ok_lt; exact HF|].
  intros a s'. apply sk_post_le.
Qed.

(* skip_yaml_whitespace: the comment loop gets the function's fuel F, the outer loop counts down from F; every
   iteration of the outer loop but the last consumes *)
Theorem skip_yaml_whitespace_lt : forall F s, rl s < F ->
  fwp (skip_yaml_whitespace str_ops F) (fun _ s' => sk_post s False s') s.
Proof.
  intros F s HF. unfold skip_yaml_whitespace.
  match goal with |- fwp (?L F true) _ _ => set (LL := L) end.
  assert (HL : forall f need s1, rl s1 < F -> rl s1 < f -> fwp (LL f need) (fun _ s' => sk_post s1 False s') s1).
  { clear s HF. induction f as [|f IHf]; intros need s HF Hf; [exfalso; lia|]. unfold LL. lazy beta iota. fold LL.
    apply fwp_bind. apply fwp_look_ch. intros s1 R1 L1 I1.
    pose proof (rl_eq _ _ R1) as D1.
    assert (NEXT : forall nd s2, rl s2 < rl s1 -> lk s1 <= lk s2 -> fwp (LL f nd) (fun _ s' => sk_post s False s') s2).
    { intros nd s2 D2 L2. eapply fwp_mono; [apply IHf; lia|]. cbv beta. intros _ s'. unfold sk_post. lia. }
    destruct (N.eqb_spec (fnth s1 0) 32) as [E32|N32].
    { apply fwp_bind. apply fwp_skip_blank_real; [rewrite E32; discriminate|]. intros s2 D2 R2 L2. apply NEXT; lia. }
    difE Ebr.
    { apply fwp_bind. apply fwp_look. intros s2 R2 L2 I2.
      pose proof (rl_eq _ _ R2) as D2. pose proof (fnth_eq _ _ 0 R2) as C2.
      apply fwp_bind. apply fwp_skip_linebreak. intros s3 P1 L3 P3.
      assert (D3 : rl s3 < rl s2) by (apply P3; rewrite C2; exact Ebr).
      apply fwp_bind. apply fwp_flow_level. apply fwp_bind.
      destruct (sc_flow_level s3 =? 0)%N.
      - apply fwp_allow_simple_key. intros s4 R4 L4. apply NEXT; [rewrite (rl_eq _ _ R4)|]; lia.
      - apply fwp_ret. apply NEXT; lia. }
    destruct (N.eqb_spec (fnth s1 0) 35) as [E35|N35].
    { apply fwp_skip_non_breakz_adv; [lia|]. intros s2 P1 P2 P4.
      apply NEXT; [apply P4; rewrite E35; reflexivity|exact P2]. }
    destruct need.
    - apply fwp_bind. apply fwp_mark. apply fwp_fail.
    - apply fwp_ret. unfold sk_post. lia. }
  apply HL; exact HF.
Qed.

Theorem skip_yaml_whitespace_ok : fuel_skip_yaml_whitespace.
Proof.
  intros F s HF. eapply fwp_mono; [apply skip_yaml_whitespace_lt; apply fuel_ok_lt; exact HF|].
  intros a s'. apply sk_post_le.
Qed.

Print Assumptions skip_ws_to_eol_ok.
Print Assumptions skip_to_next_token_ok.
Print Assumptions skip_yaml_whitespace_ok.
Print Assumptions skip_ws_to_eol_lt.
Print Assumptions skip_to_next_token_lt.
Print Assumptions skip_yaml_whitespace_lt.
