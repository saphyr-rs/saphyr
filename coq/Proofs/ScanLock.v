(* Two runs of the scanner model over the STRING input that proceed in lockstep: what C14 (ScanBrk*.v: a text and its
   CR LF / CR image) and C15 (ScanShift*.v: the same text at shifted positions) have in common.

   The calculus [lwp M] is relational partial correctness up to a marker relation [M].  A state relation [R] with a
   view [b1] of side 1's characters (what side 2 shows in their place) is a [lock] when it has the readings,
   updates and input rules listed in that record, and a [klock] when it moreover relates the simple keys, the token
   counter, the flow level and the adjacency mark as the fetch functions need; the walk over the scanner functions
   (ScanLockPrim.v ... ScanLockFetch.v) is carried out once, for any lock.  The premises [rn s1 0 <> 10] / [noLF k (rm s1)] say that
   the two inputs are aligned at the positions a rule looks at. *)
From Coq Require Import List NArith ZArith Bool Arith Lia.
Import ListNotations.
Require Import Parser SBase SPrim SDir SScalar SFetch ListKit.
Local Open Scope nat_scope.

Notation bst := (sc strin).
Notation BM := (@M strin).
Notation sops := str_ops.

Arguments N.add : simpl never.
Arguments N.eqb : simpl never.
Arguments N.ltb : simpl never.
Arguments N.leb : simpl never.
Arguments Nat.ltb : simpl never.
Arguments Nat.leb : simpl never.
Arguments Nat.eqb : simpl never.
Arguments Nat.max : simpl never.

(* 1. The string input *)
Definition rm (s : bst) : list chr := si_chars (sc_in s).
Definition rn (s : bst) (i : nat) : chr := nth i (rm s) 0%N.
Definition lk (s : bst) : nat := si_look (sc_in s).

(* none of the first k characters is a line feed *)
Definition noLF (k : nat) (l : list chr) : Prop := forall i, i < k -> nth i l 0%N <> 10%N.

Lemma noLF_0 l : noLF 0 l.
Proof. intros i Hi. lia. Qed.
Lemma noLF_1 l : nth 0 l 0%N <> 10%N -> noLF 1 l.
Proof. intros H i Hi. assert (i = 0) as -> by lia. exact H. Qed.
Lemma noLF_le k k' l : noLF k l -> k' <= k -> noLF k' l.
Proof. intros H Hk i Hi. apply H. lia. Qed.
Lemma noLF_S k l : noLF k l -> nth k l 0%N <> 10%N -> noLF (S k) l.
Proof. intros H Hk i Hi. destruct (Nat.eq_dec i k) as [->|Hne]; [exact Hk|apply H; lia]. Qed.
Lemma noLF_cons k c l : noLF (S k) (c :: l) <-> c <> 10%N /\ noLF k l.
Proof.
  split.
  - intros H. split; [exact (H 0 ltac:(lia))|]. intros i Hi. exact (H (S i) ltac:(lia)).
  - intros [Hc H] i Hi. destruct i as [|i]; [exact Hc|]. cbn [nth]. apply H. lia.
Qed.
Lemma noLF_nil k : noLF k [].
Proof. intros i _. destruct i; discriminate. Qed.
Lemma noLF_skipn k n l : noLF (n + k) l -> noLF k (skipn n l).
Proof.
  revert l. induction n as [|n IH]; intros l H; [exact H|].
  destruct l as [|c l]; [apply noLF_nil|]. cbn [skipn]. apply IH. apply (noLF_cons (n + k) c l). exact H.
Qed.
Lemma noLF_tl k l : noLF (S k) l -> noLF k (tl l).
Proof. intros H. destruct l as [|c l]; [apply noLF_nil|]. apply (noLF_cons k c l). exact H. Qed.

(* everything but the input (frame conditions of the input primitives: [ers t = ers s]) *)
Definition ers {I} (s : sc I) : sc unit :=
  {| sc_in := tt; sc_mark := sc_mark s; sc_tokens := sc_tokens s;
     sc_stream_start := sc_stream_start s; sc_stream_end := sc_stream_end s; sc_adjacent := sc_adjacent s;
     sc_ska := sc_ska s; sc_sks := sc_sks s; sc_indent := sc_indent s; sc_indents := sc_indents s;
     sc_flow_level := sc_flow_level s; sc_tokens_parsed := sc_tokens_parsed s;
     sc_token_available := sc_token_available s; sc_lws := sc_lws s; sc_ifms := sc_ifms s |}.
Lemma ers_fields {I J} (s : sc I) (t : sc J) : ers s = ers t ->
  sc_mark s = sc_mark t /\ sc_tokens s = sc_tokens t /\ sc_stream_start s = sc_stream_start t
  /\ sc_stream_end s = sc_stream_end t /\ sc_adjacent s = sc_adjacent t /\ sc_ska s = sc_ska t
  /\ sc_sks s = sc_sks t /\ sc_indent s = sc_indent t /\ sc_indents s = sc_indents t
  /\ sc_flow_level s = sc_flow_level t /\ sc_tokens_parsed s = sc_tokens_parsed t
  /\ sc_token_available s = sc_token_available t /\ sc_lws s = sc_lws t
  /\ sc_ifms s = sc_ifms t.
Proof. unfold ers. intros H. inversion H. repeat split; assumption. Qed.

(* closed forms of the string back-end's primitives *)
Definition bump (n : nat) (s : bst) : bst := set_in {| si_chars := rm s; si_look := Nat.max (lk s) n |} s.
Definition drop1 (s : bst) : bst := set_in {| si_chars := tl (rm s); si_look := lk s |} s.
Definition dropn (n : nat) (s : bst) : bst := set_in {| si_chars := skipn n (rm s); si_look := lk s |} s.
(* the result of skip_blank / skip_non_blank / skip_nl *)
Definition bl1 (s : bst) : bst := set_mark (adv 1 (sc_mark s)) (drop1 s).
Definition nb1 (s : bst) : bst := set_lws false (bl1 s).
Definition nl1 (s : bst) : bst := set_lws true (set_mark (nlm (sc_mark s)) (drop1 s)).

Lemma look_ok n s : look sops n s = Ok (tt, bump n s). Proof. reflexivity. Qed.
Lemma peekn_ok k s : peekn sops k s = Ok (rn s k, s). Proof. reflexivity. Qed.
Lemma peek_ok s : SPrim.peek sops s = Ok (rn s 0, s). Proof. reflexivity. Qed.
Lemma in_skip_ok s : in_skip sops s = Ok (tt, drop1 s). Proof. reflexivity. Qed.
Lemma in_skip_n_ok n s : in_skip_n sops n s = Ok (tt, dropn n s). Proof. reflexivity. Qed.
Lemma skip_blank_ok s : skip_blank sops s = Ok (tt, bl1 s). Proof. reflexivity. Qed.
Lemma skip_non_blank_ok s : skip_non_blank sops s = Ok (tt, nb1 s). Proof. reflexivity. Qed.
Lemma skip_nl_ok s : skip_nl sops s = Ok (tt, nl1 s). Proof. reflexivity. Qed.
Lemma lk_bump n s : lk (bump n s) = Nat.max (lk s) n. Proof. reflexivity. Qed.

Lemma rn_tl (t s : bst) i : rm t = tl (rm s) -> rn t i = rn s (S i).
Proof. unfold rn. intros ->. destruct (rm s); [destruct i; reflexivity|reflexivity]. Qed.
Lemma rn_eq (t s : bst) i : rm t = rm s -> rn t i = rn s i.
Proof. unfold rn. intros ->. reflexivity. Qed.
Lemma rn_skipn (t s : bst) n i : rm t = skipn n (rm s) -> rn t i = rn s (n + i).
Proof. unfold rn. intros ->. apply nth_skipn. Qed.

(* skip_linebreak / skip_break, evaluated *)
Definition slb (s : bst) : bst :=
  if ((rn s 0 =? 13) && (rn s 1 =? 10))%N then nl1 (bl1 s) else if is_break (rn s 0) then nl1 s else s.
Definition sbk (s : bst) : bst := if ((rn s 0 =? 13) && (rn s 1 =? 10))%N then nl1 (bl1 s) else nl1 s.
Lemma skip_linebreak_eval s : skip_linebreak sops s = if Nat.ltb (lk s) 2 then Panic 103%N else Ok (tt, slb s).
Proof.
  unfold skip_linebreak, next_2_are, assert_buflen, bind, slb. cbn [buflen str_ops]. fold (lk s).
  destruct (Nat.ltb (lk s) 2); [reflexivity|].
  rewrite peek_ok, peekn_ok. unfold ret.
  destruct ((rn s 0 =? 13) && (rn s 1 =? 10))%N; [reflexivity|].
  rewrite peek_ok. destruct (is_break (rn s 0)); reflexivity.
Qed.
Lemma skip_break_eval s : skip_break sops s = if is_break (rn s 0) then Ok (tt, sbk s) else Panic 110%N.
Proof.
  unfold skip_break, bind, sbk. rewrite peek_ok, peekn_ok.
  destruct (is_break (rn s 0)); [|reflexivity]. unfold ret.
  destruct ((rn s 0 =? 13) && (rn s 1 =? 10))%N; reflexivity.
Qed.

(* the Input default methods (input.rs): the values they compute, as functions of the remaining text *)
Definition n2are (s : bst) (a b : chr) : bool := ((rn s 0 =? a) && (rn s 1 =? b))%N.
Definition n3are (s : bst) (a b c : chr) : bool := ((rn s 0 =? a) && (rn s 1 =? b) && (rn s 2 =? c))%N.
Definition docind_val (s : bst) : bool :=
  if is_blank_or_breakz (rn s 3) then (if n3are s 46%N 46%N 46%N then true else n3are s 45%N 45%N 45%N) else false.
Definition docstart_val (s : bst) : bool := if n3are s 45%N 45%N 45%N then is_blank_or_breakz (rn s 3) else false.
Definition docend_val (s : bst) : bool := if n3are s 46%N 46%N 46%N then is_blank_or_breakz (rn s 3) else false.
Definition plain_ok_val (fl : bool) (s : bst) : bool :=
  if ((rn s 0 =? 58)%N && (is_blank_or_breakz (rn s 1) || (fl && is_flow (rn s 1)))) then false
  else if fl && is_flow (rn s 0) then false else true.

(* the assertions panic when the lookahead counter is too small *)
Lemma next_2_are_eval s a b : next_2_are sops a b s = if Nat.ltb (lk s) 2 then Panic 103%N else Ok (n2are s a b, s).
Proof. unfold next_2_are, assert_buflen, bind. cbn [buflen str_ops]. fold (lk s). destruct (Nat.ltb (lk s) 2); reflexivity. Qed.
Lemma next_3_are_eval s a b c : next_3_are sops a b c s = if Nat.ltb (lk s) 3 then Panic 104%N else Ok (n3are s a b c, s).
Proof. unfold next_3_are, assert_buflen, bind. cbn [buflen str_ops]. fold (lk s). destruct (Nat.ltb (lk s) 3); reflexivity. Qed.
Lemma ltb4_3 n : Nat.ltb n 4 = false -> Nat.ltb n 3 = false.
Proof. intros H. apply Nat.ltb_ge in H. apply Nat.ltb_ge. lia. Qed.
Lemma docind_eval s : next_is_document_indicator sops s = if Nat.ltb (lk s) 4 then Panic 105%N else Ok (docind_val s, s).
Proof.
  unfold next_is_document_indicator, assert_buflen, bind. cbn [buflen str_ops]. fold (lk s).
  destruct (Nat.ltb (lk s) 4) eqn:E; [reflexivity|]. rewrite peekn_ok. unfold docind_val.
  destruct (is_blank_or_breakz (rn s 3)); [|reflexivity].
  rewrite next_3_are_eval, (ltb4_3 _ E). destruct (n3are s 46%N 46%N 46%N); [reflexivity|].
  rewrite next_3_are_eval, (ltb4_3 _ E). reflexivity.
Qed.
Lemma docstart_eval s : next_is_document_start sops s = if Nat.ltb (lk s) 4 then Panic 106%N else Ok (docstart_val s, s).
Proof.
  unfold next_is_document_start, assert_buflen, bind. cbn [buflen str_ops]. fold (lk s).
  destruct (Nat.ltb (lk s) 4) eqn:E; [reflexivity|]. rewrite next_3_are_eval, (ltb4_3 _ E). unfold docstart_val.
  destruct (n3are s 45%N 45%N 45%N); reflexivity.
Qed.
Lemma docend_eval s : next_is_document_end sops s = if Nat.ltb (lk s) 4 then Panic 107%N else Ok (docend_val s, s).
Proof.
  unfold next_is_document_end, assert_buflen, bind. cbn [buflen str_ops]. fold (lk s).
  destruct (Nat.ltb (lk s) 4) eqn:E; [reflexivity|]. rewrite next_3_are_eval, (ltb4_3 _ E). unfold docend_val.
  destruct (n3are s 46%N 46%N 46%N); reflexivity.
Qed.
Lemma plain_ok_eval fl s : next_can_be_plain_scalar sops fl s = Ok (plain_ok_val fl s, s).
Proof.
  unfold next_can_be_plain_scalar, bind. rewrite peekn_ok, peek_ok. unfold plain_ok_val.
  destruct ((rn s 0 =? 58)%N && (is_blank_or_breakz (rn s 1) || fl && is_flow (rn s 1))); [reflexivity|].
  destruct (fl && is_flow (rn s 0)); reflexivity.
Qed.

(* a literal that is neither LF nor CR (solve by [reflexivity]) *)
Definition lit (k : chr) : Prop := ((k =? 10) || (k =? 13))%N = false.
Lemma lit_lf k : lit k -> (10 =? k)%N = false.
Proof. unfold lit. intros H. apply orb_false_iff in H. rewrite N.eqb_sym. tauto. Qed.
Lemma lit_cr k : lit k -> (13 =? k)%N = false.
Proof. unfold lit. intros H. apply orb_false_iff in H. rewrite N.eqb_sym. tauto. Qed.
Lemma lit_eq_noLF c k : lit k -> (c =? k)%N = true -> c <> 10%N.
Proof. intros H E ->. rewrite (lit_lf k H) in E. discriminate. Qed.
Lemma n3are_noLF (s : bst) a b c : lit a -> lit b -> lit c -> n3are s a b c = true -> noLF 3 (rm s).
Proof.
  intros La Lb Lc E. unfold n3are in E. apply andb_true_iff in E. destruct E as [E Ec].
  apply andb_true_iff in E. destruct E as [Ea Eb].
  apply noLF_S; [apply noLF_S; [apply noLF_1; exact (lit_eq_noLF _ a La Ea)|exact (lit_eq_noLF _ b Lb Eb)]
                |exact (lit_eq_noLF _ c Lc Ec)].
Qed.

(* 2. What side 2 shows where side 1 shows [c] *)
(* the same character, except that a line feed may be shown as CR *)
Definition sees (b1 : chr -> chr) : Prop := forall c, b1 c = c \/ c = 10%N /\ b1 c = 13%N.
(* a test that gives the same answer on what side 2 shows *)
Definition blind (b1 : chr -> chr) (p : chr -> bool) : Prop := forall c, p (b1 c) = p c.
(* the characters of [s2] are those of [s1] as shown, at the aligned positions *)
Definition seen (b1 : chr -> chr) (s1 s2 : bst) : Prop := forall k, noLF k (rm s1) -> rn s2 k = b1 (rn s1 k).

Section Sees.
Variable b1 : chr -> chr.
Hypothesis Hb : sees b1.

Lemma sees_other c : c <> 10%N -> b1 c = c.
Proof. intros H. destruct (Hb c) as [E|[E _]]; [exact E|contradiction]. Qed.
(* the scanner's character classes never separate LF from CR *)
Lemma blind_of p : p 13%N = p 10%N -> blind b1 p.
Proof. intros Hp c. destruct (Hb c) as [->|[-> ->]]; [reflexivity|exact Hp]. Qed.
Lemma sees_is_z : blind b1 is_z. Proof. apply blind_of. reflexivity. Qed.
Lemma sees_is_break : blind b1 is_break. Proof. apply blind_of. reflexivity. Qed.
Lemma sees_is_breakz : blind b1 is_breakz. Proof. apply blind_of. reflexivity. Qed.
Lemma sees_is_blank : blind b1 is_blank. Proof. apply blind_of. reflexivity. Qed.
Lemma sees_is_blank_or_breakz : blind b1 is_blank_or_breakz. Proof. apply blind_of. reflexivity. Qed.
Lemma sees_is_digit : blind b1 is_digit. Proof. apply blind_of. reflexivity. Qed.
Lemma sees_is_alpha : blind b1 is_alpha. Proof. apply blind_of. reflexivity. Qed.
Lemma sees_is_hex : blind b1 is_hex. Proof. apply blind_of. reflexivity. Qed.
Lemma sees_is_flow : blind b1 is_flow. Proof. apply blind_of. reflexivity. Qed.
Lemma sees_is_anchor_char : blind b1 is_anchor_char. Proof. apply blind_of. reflexivity. Qed.
Lemma sees_is_uri_char : blind b1 is_uri_char. Proof. apply blind_of. reflexivity. Qed.
Lemma sees_is_tag_char : blind b1 is_tag_char. Proof. apply blind_of. reflexivity. Qed.
Lemma sees_not_breakz : blind b1 (fun c => negb (is_breakz c)). Proof. apply blind_of. reflexivity. Qed.
Lemma sees_as_hex c : as_hex (b1 c) = as_hex c.
Proof. destruct (Hb c) as [->|[-> ->]]; reflexivity. Qed.
Lemma sees_eqb c k : lit k -> (b1 c =? k)%N = (c =? k)%N.
Proof. intros Lk. destruct (Hb c) as [->|[-> ->]]; [reflexivity|]. rewrite (lit_lf k Lk), (lit_cr k Lk). reflexivity. Qed.
Lemma sees_eqb_blind k : lit k -> blind b1 (fun c => (c =? k)%N).
Proof. intros Lk c. apply sees_eqb. exact Lk. Qed.
(* "is it a line break" spelled with two comparisons (skip_to_next_token, skip_yaml_whitespace) *)
Lemma sees_lf_or_cr c : ((b1 c =? 10) || (b1 c =? 13))%N = ((c =? 10) || (c =? 13))%N.
Proof. destruct (Hb c) as [->|[-> ->]]; reflexivity. Qed.

(* tests on the next characters of two texts one of which is the other as shown *)
Section Seen.
Variables s1 s2 : bst.
Hypothesis H : seen b1 s1 s2.

Lemma seen_0 : rn s2 0 = b1 (rn s1 0). Proof. apply H. apply noLF_0. Qed.
Lemma seen_0_other : rn s1 0 <> 10%N -> rn s2 0 = rn s1 0.
Proof. intros N0. rewrite seen_0. apply sees_other. exact N0. Qed.
Lemma seen_1 : rn s1 0 <> 10%N -> rn s2 1 = b1 (rn s1 1). Proof. intros N0. apply H. apply noLF_1. exact N0. Qed.
(* a comparison of the first character with a literal: a line feed, however shown, is not one *)
Lemma seen_0_lit k : lit k -> (rn s2 0 =? k)%N = (rn s1 0 =? k)%N.
Proof. intros Lk. rewrite seen_0. apply sees_eqb. exact Lk. Qed.

(* a run of literals is found on side 2 exactly when it is found on side 1 - whatever the alignment *)
Lemma n2are_seen a b : lit a -> lit b -> n2are s2 a b = n2are s1 a b.
Proof.
  intros La Lb. unfold n2are. rewrite (seen_0_lit a La). destruct (rn s1 0 =? a)%N eqn:Ea; [|reflexivity].
  rewrite (seen_1 (lit_eq_noLF _ a La Ea)), (sees_eqb _ b Lb). reflexivity.
Qed.
Lemma n3are_seen a b c : lit a -> lit b -> lit c -> n3are s2 a b c = n3are s1 a b c.
Proof.
  intros La Lb Lc. unfold n3are. fold (n2are s2 a b). fold (n2are s1 a b). rewrite (n2are_seen a b La Lb).
  destruct (n2are s1 a b) eqn:E; [|reflexivity]. cbn [andb].
  unfold n2are in E. apply andb_true_iff in E. destruct E as [Ea Eb].
  rewrite (H 2), (sees_eqb _ c Lc); [reflexivity|].
  apply noLF_S; [apply noLF_1; exact (lit_eq_noLF _ a La Ea)|exact (lit_eq_noLF _ b Lb Eb)].
Qed.
(* behind a marker found on side 1 position 3 is aligned *)
Lemma after3_seen a b c : lit a -> lit b -> lit c -> n3are s1 a b c = true ->
  is_blank_or_breakz (rn s2 3) = is_blank_or_breakz (rn s1 3).
Proof. intros La Lb Lc E. rewrite (H 3); [apply sees_is_blank_or_breakz|]. exact (n3are_noLF s1 a b c La Lb Lc E). Qed.
Lemma docstart_seen : docstart_val s2 = docstart_val s1.
Proof.
  unfold docstart_val. rewrite n3are_seen by reflexivity.
  destruct (n3are s1 45%N 45%N 45%N) eqn:E; [|reflexivity]. apply (after3_seen 45%N 45%N 45%N); (reflexivity || exact E).
Qed.
Lemma docend_seen : docend_val s2 = docend_val s1.
Proof.
  unfold docend_val. rewrite n3are_seen by reflexivity.
  destruct (n3are s1 46%N 46%N 46%N) eqn:E; [|reflexivity]. apply (after3_seen 46%N 46%N 46%N); (reflexivity || exact E).
Qed.
Lemma docind_seen : docind_val s2 = docind_val s1.
Proof.
  unfold docind_val. rewrite !n3are_seen by reflexivity.
  destruct (n3are s1 46%N 46%N 46%N) eqn:E.
  { rewrite (after3_seen 46%N 46%N 46%N) by (reflexivity || exact E). reflexivity. }
  destruct (n3are s1 45%N 45%N 45%N) eqn:E'.
  { rewrite (after3_seen 45%N 45%N 45%N) by (reflexivity || exact E'). reflexivity. }
  destruct (is_blank_or_breakz (rn s2 3)), (is_blank_or_breakz (rn s1 3)); reflexivity.
Qed.
Lemma plain_ok_seen fl : rn s1 0 <> 10%N -> plain_ok_val fl s2 = plain_ok_val fl s1.
Proof.
  intros N0. unfold plain_ok_val. rewrite (seen_0_other N0), (seen_1 N0), sees_is_blank_or_breakz, sees_is_flow. reflexivity.
Qed.
(* a test on the SECOND character guarded by "the first is the literal k": no alignment premise
   (fetch_block_entry: [(c =? 45) && is_blank_or_breakz nc]; scan_plain_scalar: [(c =? 45) && is_flow nc]) *)
Lemma guard1_seen p k : lit k -> blind b1 p ->
  ((rn s2 0 =? k)%N && p (rn s2 1)) = ((rn s1 0 =? k)%N && p (rn s1 1)).
Proof.
  intros Lk Hp. rewrite (seen_0_lit k Lk). destruct (rn s1 0 =? k)%N eqn:Ek; [|reflexivity].
  rewrite (seen_1 (lit_eq_noLF _ k Lk Ek)), Hp. reflexivity.
Qed.
End Seen.
End Sees.

(* 3. The relational calculus *)
(* partial correctness: when both runs end properly (a value or an error) the values / states satisfy the
   postcondition, or the errors are the same error site at related markers; a run that ends in OutOfFuel or Panic
   (either side) is not this calculus' concern.  No common fuel and no common function is required of the sides. *)
Definition lwp (M : marker -> marker -> Prop) {A1 A2} (m1 : BM A1) (m2 : BM A2) (Q : A1 -> bst -> A2 -> bst -> Prop)
  (s1 s2 : bst) : Prop :=
  match m1 s1 with
  | Panic _ => True
  | OutOfFuel => True
  | Ok (a1, t1) => match m2 s2 with
                   | Ok (a2, t2) => Q a1 t1 a2 t2
                   | Err _ _ => False
                   | _ => True
                   end
  | Err e1 k1 => match m2 s2 with
                 | Err e2 k2 => e1 = e2 /\ M k1 k2
                 | Ok _ => False
                 | _ => True
                 end
  end.

(* the usual shape of a postcondition: equal values *)
Definition Qe {A} (P : A -> bst -> bst -> Prop) : A -> bst -> A -> bst -> Prop :=
  fun a1 t1 a2 t2 => a1 = a2 /\ P a1 t1 t2.

Section Calculus.
Variable M : marker -> marker -> Prop.
Local Notation wp := (lwp M).

Lemma lwp_ret {A1 A2} (a1 : A1) (a2 : A2) (Q : A1 -> bst -> A2 -> bst -> Prop) s1 s2 :
  Q a1 s1 a2 s2 -> wp (ret a1) (ret a2) Q s1 s2.
Proof. auto. Qed.
Lemma lwp_bind {A1 A2 B1 B2} (m1 : BM A1) (m2 : BM A2) (f1 : A1 -> BM B1) (f2 : A2 -> BM B2)
  (Q : B1 -> bst -> B2 -> bst -> Prop) s1 s2 :
  wp m1 m2 (fun a1 t1 a2 t2 => wp (f1 a1) (f2 a2) Q t1 t2) s1 s2 -> wp (bind m1 f1) (bind m2 f2) Q s1 s2.
Proof.
  unfold lwp, bind. destruct (m1 s1) as [[a1 t1]|e1 k1|n1|]; auto.
  - destruct (m2 s2) as [[a2 t2]|e2 k2|n2|]; auto; try tauto.
    + destruct (f1 a1 t1) as [[c1 u1]|? ?|?|]; auto.
    + destruct (f1 a1 t1) as [[c1 u1]|? ?|?|]; auto.
  - destruct (m2 s2) as [[a2 t2]|e2 k2|n2|]; auto; try tauto.
Qed.
Lemma lwp_mono {A1 A2} (m1 : BM A1) (m2 : BM A2) (Q Q' : A1 -> bst -> A2 -> bst -> Prop) s1 s2 :
  wp m1 m2 Q s1 s2 -> (forall a1 t1 a2 t2, Q a1 t1 a2 t2 -> Q' a1 t1 a2 t2) -> wp m1 m2 Q' s1 s2.
Proof.
  unfold lwp. intros H HQ. destruct (m1 s1) as [[a1 t1]|e1 k1|n1|]; auto.
  destruct (m2 s2) as [[a2 t2]|e2 k2|n2|]; auto.
Qed.
(* equal-valued bind: the continuation is the same function on both sides *)
Lemma lwp_bind_e {A B1 B2} (m1 m2 : BM A) (f1 : A -> BM B1) (f2 : A -> BM B2) (Q : B1 -> bst -> B2 -> bst -> Prop) s1 s2 :
  wp m1 m2 (Qe (fun a t1 t2 => wp (f1 a) (f2 a) Q t1 t2)) s1 s2 -> wp (bind m1 f1) (bind m2 f2) Q s1 s2.
Proof. intros H. apply lwp_bind. eapply lwp_mono; [exact H|]. intros a1 t1 a2 t2 [<- H']. exact H'. Qed.
(* the same error site, at related markers *)
Lemma lwp_fail {A1 A2} site k1 k2 (Q : A1 -> bst -> A2 -> bst -> Prop) s1 s2 :
  M k1 k2 -> wp (@fail strin A1 site k1) (@fail strin A2 site k2) Q s1 s2.
Proof. intros H. unfold lwp, fail. auto. Qed.
Lemma lwp_panic_l {A1 A2} site (m2 : BM A2) (Q : A1 -> bst -> A2 -> bst -> Prop) s1 s2 : wp (@panic strin A1 site) m2 Q s1 s2.
Proof. exact I. Qed.
Lemma lwp_oof_r {A1 A2} (m1 : BM A1) (Q : A1 -> bst -> A2 -> bst -> Prop) s1 s2 : wp m1 (@oof strin A2) Q s1 s2.
Proof. unfold lwp, oof. destruct (m1 s1) as [[a1 t1]|e1 k1|n1|]; auto. Qed.
Lemma lwp_panic_r {A1 A2} site (m1 : BM A1) (Q : A1 -> bst -> A2 -> bst -> Prop) s1 s2 : wp m1 (@panic strin A2 site) Q s1 s2.
Proof. unfold lwp, panic. destruct (m1 s1) as [[a1 t1]|e1 k1|n1|]; auto. Qed.
Lemma lwp_get (Q : bst -> bst -> bst -> bst -> Prop) s1 s2 : Q s1 s1 s2 s2 -> wp get get Q s1 s2.
Proof. auto. Qed.
Lemma lwp_gets {A1 A2} (f1 : bst -> A1) (f2 : bst -> A2) (Q : A1 -> bst -> A2 -> bst -> Prop) s1 s2 :
  Q (f1 s1) s1 (f2 s2) s2 -> wp (gets f1) (gets f2) Q s1 s2.
Proof. auto. Qed.
Lemma lwp_put t1 t2 (Q : unit -> bst -> unit -> bst -> Prop) s1 s2 : Q tt t1 tt t2 -> wp (put t1) (put t2) Q s1 s2.
Proof. auto. Qed.
Lemma lwp_modify f1 f2 (Q : unit -> bst -> unit -> bst -> Prop) s1 s2 :
  Q tt (f1 s1) tt (f2 s2) -> wp (modify f1) (modify f2) Q s1 s2.
Proof. auto. Qed.

(* what a related pair of results means *)
Lemma lwp_elim {A1 A2} (m1 : BM A1) (m2 : BM A2) (Q : A1 -> bst -> A2 -> bst -> Prop) s1 s2 : wp m1 m2 Q s1 s2 ->
  match m1 s1, m2 s2 with
  | Ok (a1, t1), Ok (a2, t2) => Q a1 t1 a2 t2
  | Err e1 k1, Err e2 k2 => e1 = e2 /\ M k1 k2
  | Ok _, Err _ _ => False
  | Err _ _, Ok _ => False
  | _, _ => True
  end.
Proof.
  unfold lwp. destruct (m1 s1) as [[a1 t1]|e1 k1|n1|]; destruct (m2 s2) as [[a2 t2]|e2 k2|n2|]; auto.
Qed.
Lemma lwp_intro {A1 A2} (m1 : BM A1) (m2 : BM A2) (Q : A1 -> bst -> A2 -> bst -> Prop) s1 s2 :
  match m1 s1, m2 s2 with
  | Ok (a1, t1), Ok (a2, t2) => Q a1 t1 a2 t2
  | Err e1 k1, Err e2 k2 => e1 = e2 /\ M k1 k2
  | Ok _, Err _ _ => False
  | Err _ _, Ok _ => False
  | _, _ => True
  end -> wp m1 m2 Q s1 s2.
Proof.
  unfold lwp. destruct (m1 s1) as [[a1 t1]|e1 k1|n1|]; destruct (m2 s2) as [[a2 t2]|e2 k2|n2|]; auto.
Qed.

(* one side, or both, given as outcomes *)
Lemma lwp_ext_l {A1 A2} (m1 m1' : BM A1) (m2 : BM A2) (Q : A1 -> bst -> A2 -> bst -> Prop) s1 s1' s2 :
  m1 s1 = m1' s1' -> wp m1' m2 Q s1' s2 -> wp m1 m2 Q s1 s2.
Proof. intros E H. unfold lwp in *. rewrite E. exact H. Qed.
Lemma lwp_ext_r {A1 A2} (m1 : BM A1) (m2 m2' : BM A2) (Q : A1 -> bst -> A2 -> bst -> Prop) s1 s2 s2' :
  m2 s2 = m2' s2' -> wp m1 m2' Q s1 s2' -> wp m1 m2 Q s1 s2.
Proof. intros E H. unfold lwp in *. rewrite E. exact H. Qed.
Lemma lwp_step_l {A B1 B2} (m : BM A) (f1 : A -> BM B1) (m2 : BM B2) (Q : B1 -> bst -> B2 -> bst -> Prop) s1 s2 a t1 :
  m s1 = Ok (a, t1) -> wp (f1 a) m2 Q t1 s2 -> wp (bind m f1) m2 Q s1 s2.
Proof. intros Hm H. unfold lwp, bind in *. rewrite Hm. exact H. Qed.
Lemma lwp_step_r {A B1 B2} (m : BM A) (m1 : BM B1) (f2 : A -> BM B2) (Q : B1 -> bst -> B2 -> bst -> Prop) s1 s2 a t2 :
  m s2 = Ok (a, t2) -> wp m1 (f2 a) Q s1 t2 -> wp m1 (bind m f2) Q s1 s2.
Proof. intros Hm H. unfold lwp, bind in *. rewrite Hm. exact H. Qed.
Lemma lwp_eval {A1 A2} (m1 : BM A1) (m2 : BM A2) (Q : A1 -> bst -> A2 -> bst -> Prop) s1 s2 a1 t1 a2 t2 :
  m1 s1 = Ok (a1, t1) -> m2 s2 = Ok (a2, t2) -> Q a1 t1 a2 t2 -> wp m1 m2 Q s1 s2.
Proof. intros H1 H2 HQ. unfold lwp. rewrite H1, H2. exact HQ. Qed.
Lemma lwp_bind_eval {A1 A2 B1 B2} (m1 : BM A1) (m2 : BM A2) (f1 : A1 -> BM B1) (f2 : A2 -> BM B2)
  (Q : B1 -> bst -> B2 -> bst -> Prop) s1 s2 a1 t1 a2 t2 :
  m1 s1 = Ok (a1, t1) -> m2 s2 = Ok (a2, t2) -> wp (f1 a1) (f2 a2) Q t1 t2 -> wp (bind m1 f1) (bind m2 f2) Q s1 s2.
Proof. intros H1 H2 HQ. apply lwp_bind. eapply lwp_eval; eassumption. Qed.
(* each side reads its own k-th character *)
Lemma lwp_peekn_raw k (Q : chr -> bst -> chr -> bst -> Prop) s1 s2 :
  Q (rn s1 k) s1 (rn s2 k) s2 -> wp (peekn sops k) (peekn sops k) Q s1 s2.
Proof. intros HQ. exact HQ. Qed.
(* the same skeleton read on both sides *)
Lemma lwp_gets_eq {A} (f1 f2 : bst -> A) (Q : A -> bst -> A -> bst -> Prop) s1 s2 :
  f1 s1 = f2 s2 -> Q (f1 s1) s1 (f1 s1) s2 -> wp (gets f1) (gets f2) Q s1 s2.
Proof. intros E HQ. apply lwp_gets. rewrite <- E. exact HQ. Qed.

(* spans and tokens up to [M] *)
Definition Msp (a b : span) : Prop := M (sp_start a) (sp_start b) /\ M (sp_end a) (sp_end b).
Definition Mtok (t1 t2 : token) : Prop := Msp (fst t1) (fst t2) /\ snd t1 = snd t2.
Definition Motok (o1 o2 : option token) : Prop :=
  match o1, o2 with Some t1, Some t2 => Mtok t1 t2 | None, None => True | _, _ => False end.
(* how two scans end *)
Definition Mend (e1 e2 : scan_end) : Prop :=
  match e1, e2 with
  | SEnded, SEnded => True
  | SError a k1, SError b k2 => a = b /\ M k1 k2
  | SPanic _, _ | _, SPanic _ | SFuel, _ | _, SFuel => True
  | _, _ => False
  end.
Definition proper_end (e : scan_end) : Prop := match e with SEnded | SError _ _ => True | _ => False end.
Lemma Msp_empty m1 m2 : M m1 m2 -> Msp (span_empty m1) (span_empty m2).
Proof. intros H. split; exact H. Qed.
Lemma Msp_mk a1 b1 a2 b2 : M a1 a2 -> M b1 b2 -> Msp {| sp_start := a1; sp_end := b1 |} {| sp_start := a2; sp_end := b2 |}.
Proof. intros H1 H2. split; assumption. Qed.
Lemma Mtok_mk sp1 sp2 t : Msp sp1 sp2 -> Mtok (sp1, t) (sp2, t).
Proof. intros H. split; [exact H|reflexivity]. Qed.
Lemma Mtok_empty m1 m2 t : M m1 m2 -> Mtok (span_empty m1, t) (span_empty m2, t).
Proof. intros H. apply Mtok_mk. apply Msp_empty. exact H. Qed.
End Calculus.

Lemma F2_length {A B} (R : A -> B -> Prop) l1 l2 : Forall2 R l1 l2 -> length l1 = length l2.
Proof. induction 1; cbn [length]; congruence. Qed.

(* 4. Locks *)
(* the fields that are plainly equal under every lock *)
Definition lskel (s : bst) :=
  (sc_stream_start s, sc_stream_end s, sc_ska s, sc_indent s, sc_indents s, sc_flow_level s,
   sc_token_available s, sc_lws s, sc_ifms s).

Section Lock.
Variables (b1 : chr -> chr) (M : marker -> marker -> Prop) (R : bst -> bst -> Prop).
Local Notation wp := (lwp M).

(* [lpost VR]: values related by [VR], states related; [lpost_al VR]: moreover the next character of side 1 is not a
   line feed, i.e. positions 0 and 1 of the two inputs are aligned (what every scan_* / fetch_* entry needs) *)
Definition lpost {A1 A2} (VR : A1 -> A2 -> Prop) : A1 -> bst -> A2 -> bst -> Prop :=
  fun a1 t1 a2 t2 => VR a1 a2 /\ R t1 t2.
Definition lpost_al {A1 A2} (VR : A1 -> A2 -> Prop) : A1 -> bst -> A2 -> bst -> Prop :=
  fun a1 t1 a2 t2 => VR a1 a2 /\ R t1 t2 /\ rn t1 0 <> 10%N.

Record lock : Prop := {
  l_sees : sees b1;
  (* markers: the same column; lines of two related pairs compare alike *)
  l_col : forall m1 m2, M m1 m2 -> m_col m1 = m_col m2;
  l_line_eqb : forall a1 a2 c1 c2, M a1 a2 -> M c1 c2 -> (m_line a2 =? m_line c2)%N = (m_line a1 =? m_line c1)%N;
  (* reading the state relation *)
  l_mark : forall s1 s2, R s1 s2 -> M (sc_mark s1) (sc_mark s2);
  l_tokens : forall s1 s2, R s1 s2 -> Forall2 (Mtok M) (sc_tokens s1) (sc_tokens s2);
  l_skel : forall s1 s2, R s1 s2 -> lskel s1 = lskel s2;
  l_seen : forall s1 s2, R s1 s2 -> seen b1 s1 s2;
  l_lk0 : forall s1 s2, R s1 s2 -> Nat.eqb (lk s2) 0 = Nat.eqb (lk s1) 0;
  (* the state relation under updates of the skeleton *)
  l_set_tokens : forall l1 l2 s1 s2, R s1 s2 -> Forall2 (Mtok M) l1 l2 -> R (set_tokens l1 s1) (set_tokens l2 s2);
  l_set_ska : forall b s1 s2, R s1 s2 -> R (set_ska b s1) (set_ska b s2);
  l_set_lws : forall b s1 s2, R s1 s2 -> R (set_lws b s1) (set_lws b s2);
  l_set_ta : forall b s1 s2, R s1 s2 -> R (set_ta b s1) (set_ta b s2);
  l_set_ss : forall b s1 s2, R s1 s2 -> R (set_ss b s1) (set_ss b s2);
  l_set_se : forall b s1 s2, R s1 s2 -> R (set_se b s1) (set_se b s2);
  l_set_indent : forall z l s1 s2, R s1 s2 -> R (set_indent z l s1) (set_indent z l s2);
  l_set_ifms : forall l s1 s2, R s1 s2 -> R (set_ifms l s1) (set_ifms l s2);
  l_set_adj_here : forall s1 s2, R s1 s2 -> R (set_adj (m_index (sc_mark s1)) s1) (set_adj (m_index (sc_mark s2)) s2);
  (* ... and along the input primitives: characters other than a line feed are consumed in lockstep *)
  l_adv : forall n s1 s2, R s1 s2 -> R (set_mark (adv n (sc_mark s1)) s1) (set_mark (adv n (sc_mark s2)) s2);
  l_bump : forall n s1 s2, R s1 s2 -> R (bump n s1) (bump n s2);
  l_drop1 : forall s1 s2, R s1 s2 -> rn s1 0 <> 10%N -> R (drop1 s1) (drop1 s2);
  l_dropn : forall n s1 s2, R s1 s2 -> noLF n (rm s1) -> R (dropn n s1) (dropn n s2);
  (* the line break: whatever each side consumes for it, the states are related again behind it *)
  l_skip_linebreak : forall (Q : unit -> bst -> unit -> bst -> Prop) s1 s2,
    R s1 s2 -> (forall t1 t2, R t1 t2 -> Q tt t1 tt t2) -> wp (skip_linebreak sops) (skip_linebreak sops) Q s1 s2;
  l_skip_break : forall (Q : unit -> bst -> unit -> bst -> Prop) s1 s2,
    R s1 s2 -> (forall t1 t2, R t1 t2 -> Q tt t1 tt t2) -> wp (skip_break sops) (skip_break sops) Q s1 s2;
  l_raw_read : forall (Q : option chr -> bst -> option chr -> bst -> Prop) s1 s2,
    R s1 s2 ->
    (forall c t1 t2, R t1 t2 -> ers t1 = ers s1 -> ers t2 = ers s2 ->
       match c with
       | Some x => rm s1 = x :: rm t1 /\ is_breakz x = false
       | None => rm t1 = rm s1 /\ is_breakz (rn s1 0) = true
       end -> Q c t1 c t2) ->
    wp (raw_read sops) (raw_read sops) Q s1 s2 }.

End Lock.
Arguments lpost R {A1 A2}. Arguments lpost_al R {A1 A2}.
Arguments l_sees {b1 M R}. Arguments l_col {b1 M R}. Arguments l_line_eqb {b1 M R}. Arguments l_mark {b1 M R}.
Arguments l_tokens {b1 M R}. Arguments l_skel {b1 M R}. Arguments l_seen {b1 M R}. Arguments l_lk0 {b1 M R}.
Arguments l_set_tokens {b1 M R}. Arguments l_set_ska {b1 M R}. Arguments l_set_lws {b1 M R}. Arguments l_set_ta {b1 M R}.
Arguments l_set_ss {b1 M R}. Arguments l_set_se {b1 M R}. Arguments l_set_indent {b1 M R}. Arguments l_set_ifms {b1 M R}.
Arguments l_set_adj_here {b1 M R}. Arguments l_adv {b1 M R}. Arguments l_bump {b1 M R}. Arguments l_drop1 {b1 M R}.
Arguments l_dropn {b1 M R}. Arguments l_skip_linebreak {b1 M R}. Arguments l_skip_break {b1 M R}.
Arguments l_raw_read {b1 M R}.

Ltac skel_cbn :=
  cbn [sc_in sc_mark sc_tokens sc_stream_start sc_stream_end sc_adjacent sc_ska sc_sks sc_indent sc_indents
       sc_flow_level sc_tokens_parsed sc_token_available sc_lws sc_ifms
       upd set_in set_mark set_tokens set_flags set_ska set_lws set_adj set_ta set_ss set_se
       set_struct set_sks set_indent set_fl set_tp set_ifms].

Lemma lskel_fields (s t : bst) : lskel s = lskel t ->
  sc_stream_start s = sc_stream_start t /\ sc_stream_end s = sc_stream_end t /\ sc_ska s = sc_ska t
  /\ sc_indent s = sc_indent t /\ sc_indents s = sc_indents t /\ sc_flow_level s = sc_flow_level t
  /\ sc_token_available s = sc_token_available t /\ sc_lws s = sc_lws t /\ sc_ifms s = sc_ifms t.
Proof. unfold lskel. intros H. inversion H. repeat split; assumption. Qed.

Section Read.
Context {b1 : chr -> chr} {M : marker -> marker -> Prop} {R : bst -> bst -> Prop} (L : lock b1 M R).
Context {s1 s2 : bst} (H : R s1 s2).
Lemma L_col : m_col (sc_mark s1) = m_col (sc_mark s2). Proof. exact (l_col L _ _ (l_mark L _ _ H)). Qed.
Lemma L_stream_start : sc_stream_start s1 = sc_stream_start s2. Proof. pose proof (lskel_fields _ _ (l_skel L _ _ H)). tauto. Qed.
Lemma L_stream_end : sc_stream_end s1 = sc_stream_end s2. Proof. pose proof (lskel_fields _ _ (l_skel L _ _ H)). tauto. Qed.
Lemma L_ska : sc_ska s1 = sc_ska s2. Proof. pose proof (lskel_fields _ _ (l_skel L _ _ H)). tauto. Qed.
Lemma L_indent : sc_indent s1 = sc_indent s2. Proof. pose proof (lskel_fields _ _ (l_skel L _ _ H)). tauto. Qed.
Lemma L_indents : sc_indents s1 = sc_indents s2. Proof. pose proof (lskel_fields _ _ (l_skel L _ _ H)). tauto. Qed.
Lemma L_flow_level : sc_flow_level s1 = sc_flow_level s2. Proof. pose proof (lskel_fields _ _ (l_skel L _ _ H)). tauto. Qed.
Lemma L_token_available : sc_token_available s1 = sc_token_available s2. Proof. pose proof (lskel_fields _ _ (l_skel L _ _ H)). tauto. Qed.
Lemma L_lws : sc_lws s1 = sc_lws s2. Proof. pose proof (lskel_fields _ _ (l_skel L _ _ H)). tauto. Qed.
Lemma L_ifms : sc_ifms s1 = sc_ifms s2. Proof. pose proof (lskel_fields _ _ (l_skel L _ _ H)). tauto. Qed.
Lemma L_tokens_len : length (sc_tokens s1) = length (sc_tokens s2). Proof. exact (F2_length _ _ _ (l_tokens L _ _ H)). Qed.
Lemma L_push t1 t2 : Mtok M t1 t2 -> R (set_tokens (sc_tokens s1 ++ [t1]) s1) (set_tokens (sc_tokens s2 ++ [t2]) s2).
Proof.
  intros HT. apply (l_set_tokens L); [exact H|]. apply Forall2_app; [exact (l_tokens L _ _ H)|].
  constructor; [exact HT|constructor].
Qed.
End Read.

(* [l_sync L H]: L a lock for R, H : R s1 s2; every equal-valued field of s2 in the goal (the column of the mark
   included) becomes the field of s1.  [l_fwd L H] rewrites the other way round. *)
Ltac l_sync L H :=
  rewrite <- ?(L_col L H), <- ?(L_stream_start L H), <- ?(L_stream_end L H), <- ?(L_ska L H),
          <- ?(L_indent L H), <- ?(L_indents L H), <- ?(L_flow_level L H),
          <- ?(L_token_available L H), <- ?(L_lws L H), <- ?(L_ifms L H), <- ?(L_tokens_len L H).
Ltac l_fwd L H :=
  rewrite ?(L_col L H), ?(L_stream_start L H), ?(L_stream_end L H), ?(L_ska L H),
          ?(L_indent L H), ?(L_indents L H), ?(L_flow_level L H),
          ?(L_token_available L H), ?(L_lws L H), ?(L_ifms L H), ?(L_tokens_len L H).
(* [b1_norm L]: remove every [b1] under a character class / a comparison with a literal in the goal *)
Ltac b1_norm L :=
  let Hb := constr:(l_sees L) in
  match type of L with
  | lock ?b _ _ =>
    repeat match goal with
    | |- context [is_z (b ?c)] => rewrite (sees_is_z b Hb c)
    | |- context [is_break (b ?c)] => rewrite (sees_is_break b Hb c)
    | |- context [is_breakz (b ?c)] => rewrite (sees_is_breakz b Hb c)
    | |- context [is_blank (b ?c)] => rewrite (sees_is_blank b Hb c)
    | |- context [is_blank_or_breakz (b ?c)] => rewrite (sees_is_blank_or_breakz b Hb c)
    | |- context [is_digit (b ?c)] => rewrite (sees_is_digit b Hb c)
    | |- context [is_alpha (b ?c)] => rewrite (sees_is_alpha b Hb c)
    | |- context [is_hex (b ?c)] => rewrite (sees_is_hex b Hb c)
    | |- context [is_flow (b ?c)] => rewrite (sees_is_flow b Hb c)
    | |- context [is_anchor_char (b ?c)] => rewrite (sees_is_anchor_char b Hb c)
    | |- context [is_uri_char (b ?c)] => rewrite (sees_is_uri_char b Hb c)
    | |- context [is_tag_char (b ?c)] => rewrite (sees_is_tag_char b Hb c)
    | |- context [as_hex (b ?c)] => rewrite (sees_as_hex b Hb c)
    | |- context [((b ?c =? 10) || (b ?c =? 13))%N] => rewrite (sees_lf_or_cr b Hb c)
    | |- context [(b ?c =? ?k)%N] => rewrite (sees_eqb b Hb c k) by reflexivity
    end
  end.
(* both sides branch on the same test *)
Ltac case_if E := match goal with |- lwp _ (if ?b then _ else _) (if ?b then _ else _) _ _ _ => destruct b eqn:E end.
(* ... or on tests that [b1_norm] and [l_fwd] make the same *)
Ltac lwp_if L H :=
  match goal with
  | |- lwp _ (if ?c1 then _ else _) (if ?c2 then _ else _) _ _ _ =>
      first [ constr_eq c1 c2 | replace c2 with c1 by (b1_norm L; l_fwd L H; reflexivity) ];
      let Eb := fresh "Eb" in destruct c1 eqn:Eb
  end.

(* 5. Locks at the token level *)
(* What the fetch functions need beyond the characters: the simple keys are related by [K c1 c2] ([c1 c2] = the current
   marks), the token counter of side 2 (and the token number of every live key) is [dk] larger, and
   adjacent_value_allowed_at, which is only ever compared with the current index, compares alike inside a flow
   collection.  Of a key that is not possible nothing but the flag is ever read. *)
Definition sk_kill (k : simple_key) : simple_key :=
  {| sk_possible := false; sk_required := sk_required k; sk_token_number := sk_token_number k; sk_mark := sk_mark k |}.
(* the placeholder key of fetch_stream_start and increase_flow_level *)
Definition sk_blank : simple_key := {| sk_possible := false; sk_required := false; sk_token_number := 0; sk_mark := mk0 |}.
(* what stale_simple_keys and fetch_value ask of a key: on an earlier line, or more than 1024 characters back *)
Definition sk_far (k : simple_key) (c : marker) : bool :=
  ((m_line (sk_mark k) <? m_line c) || (m_index (sk_mark k) + SIMPLE_KEY_MAX <? m_index c))%N.

Section KLock.
Variables (b1 : chr -> chr) (M : marker -> marker -> Prop) (R : bst -> bst -> Prop).
Variables (dk : N) (K : marker -> marker -> simple_key -> simple_key -> Prop).

Record klock : Prop := {
  k_lock : lock b1 M R;
  (* simple keys *)
  k_possible : forall c1 c2 k1 k2, K c1 c2 k1 k2 -> sk_possible k1 = sk_possible k2;
  k_required : forall c1 c2 k1 k2, K c1 c2 k1 k2 -> sk_possible k1 = true -> sk_required k1 = sk_required k2;
  k_number : forall c1 c2 k1 k2, K c1 c2 k1 k2 -> sk_possible k1 = true -> (sk_token_number k1 + dk)%N = sk_token_number k2;
  k_mark : forall c1 c2 k1 k2, K c1 c2 k1 k2 -> sk_possible k1 = true -> M (sk_mark k1) (sk_mark k2);
  k_far : forall c1 c2 k1 k2, K c1 c2 k1 k2 -> M c1 c2 -> sk_possible k1 = true -> sk_far k2 c2 = sk_far k1 c1;
  k_here : forall c1 c2 p r n1 n2, M c1 c2 -> (n1 + dk)%N = n2 ->
    K c1 c2 {| sk_possible := p; sk_required := r; sk_token_number := n1; sk_mark := c1 |}
            {| sk_possible := p; sk_required := r; sk_token_number := n2; sk_mark := c2 |};
  k_blank : forall c1 c2, K c1 c2 sk_blank sk_blank;
  k_kill : forall c1 c2 k1 k2, K c1 c2 k1 k2 -> K c1 c2 (sk_kill k1) (sk_kill k2);
  (* reading and updating the state relation *)
  k_sks : forall s1 s2, R s1 s2 -> Forall2 (K (sc_mark s1) (sc_mark s2)) (sc_sks s1) (sc_sks s2);
  k_tp : forall s1 s2, R s1 s2 -> (sc_tokens_parsed s1 + dk)%N = sc_tokens_parsed s2;
  k_adj_eqb : forall s1 s2, R s1 s2 -> sc_flow_level s1 <> 0%N ->
    (m_index (sc_mark s2) =? sc_adjacent s2)%N = (m_index (sc_mark s1) =? sc_adjacent s1)%N;
  k_set_sks : forall l1 l2 s1 s2, R s1 s2 -> Forall2 (K (sc_mark s1) (sc_mark s2)) l1 l2 -> R (set_sks l1 s1) (set_sks l2 s2);
  k_set_tp : forall n1 n2 s1 s2, R s1 s2 -> (n1 + dk)%N = n2 -> R (set_tp n1 s1) (set_tp n2 s2);
  (* the flow level may change to anything inside a flow collection, and to 0 in any case ... *)
  k_set_fl : forall n s1 s2, R s1 s2 -> n = 0%N \/ sc_flow_level s1 <> 0%N -> R (set_fl n s1) (set_fl n s2);
  (* ... and from 0 to 1 together with the bracket that opens the collection: what fetch_flow_collection_start does
     between save_simple_key and the skipping of the bracket, as ONE update *)
  k_flow_open : forall s1 s2, R s1 s2 -> rn s1 0 <> 10%N ->
    R (nb1 (set_ska true (set_fl (sc_flow_level s1 + 1) (set_sks (sk_blank :: sc_sks s1) s1))))
      (nb1 (set_ska true (set_fl (sc_flow_level s2 + 1) (set_sks (sk_blank :: sc_sks s2) s2))));
  (* fetch_stream_end: a new line without consuming anything *)
  k_eol : forall s1 s2, R s1 s2 ->
    R (set_mark {| m_index := m_index (sc_mark s1); m_line := m_line (sc_mark s1) + 1; m_col := 0 |} s1)
      (set_mark {| m_index := m_index (sc_mark s2); m_line := m_line (sc_mark s2) + 1; m_col := 0 |} s2) }.
End KLock.
Arguments k_lock {b1 M R dk K}. Arguments k_possible {b1 M R dk K}. Arguments k_required {b1 M R dk K}.
Arguments k_number {b1 M R dk K}. Arguments k_mark {b1 M R dk K}. Arguments k_far {b1 M R dk K}.
Arguments k_here {b1 M R dk K}. Arguments k_blank {b1 M R dk K}. Arguments k_kill {b1 M R dk K}.
Arguments k_sks {b1 M R dk K}. Arguments k_tp {b1 M R dk K}. Arguments k_adj_eqb {b1 M R dk K}.
Arguments k_set_sks {b1 M R dk K}. Arguments k_set_tp {b1 M R dk K}. Arguments k_set_fl {b1 M R dk K}.
Arguments k_flow_open {b1 M R dk K}. Arguments k_eol {b1 M R dk K}.

(* comparisons of two counters shifted alike *)
Lemma shift_ltb a b k : (a + k <? b + k)%N = (a <? b)%N.
Proof. destruct (N.ltb_spec (a + k) (b + k)); destruct (N.ltb_spec a b); try reflexivity; lia. Qed.
Lemma shift_eqb a b k : (a + k =? b + k)%N = (a =? b)%N.
Proof. destruct (N.eqb_spec (a + k) (b + k)); destruct (N.eqb_spec a b); try reflexivity; lia. Qed.
Lemma shift_sub a b k : (a + k - (b + k))%N = (a - b)%N.
Proof. lia. Qed.
