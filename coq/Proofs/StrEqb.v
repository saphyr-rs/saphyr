(* The string test of the model decides equality.  Parser.str_eqb and Resolver.str_eqb are the same function on
   the same type under two names, so the facts hold of both; [rewrite] wants the name it finds in the goal,
   hence the second statement of the equivalence. *)
From Coq Require Import List NArith.
Require Parser Resolver.
Import Resolver.

Lemma str_eqb_iff (a b : str) : str_eqb a b = true <-> a = b.
Proof. unfold str_eqb. destruct (list_eq_dec N.eq_dec a b); split; congruence. Qed.
Lemma str_eqb_eq (a b : str) : str_eqb a b = true -> a = b.
Proof. apply str_eqb_iff. Qed.
Lemma str_eqb_refl (a : str) : str_eqb a a = true.
Proof. apply str_eqb_iff. reflexivity. Qed.
Lemma str_eqb_sym (a b : str) : str_eqb a b = str_eqb b a.
Proof. unfold str_eqb. destruct (list_eq_dec N.eq_dec a b), (list_eq_dec N.eq_dec b a); congruence. Qed.

Lemma pstr_eqb_iff (a b : Parser.str) : Parser.str_eqb a b = true <-> a = b.
Proof. exact (str_eqb_iff a b). Qed.
Lemma pstr_eqb_refl (a : Parser.str) : Parser.str_eqb a a = true.
Proof. exact (str_eqb_refl a). Qed.

(* the association lists of the parser (HashMap::insert / get on anchors and tag handles) *)
Lemma assoc_set_spec {B} (k k' : Parser.str) (v : B) l :
  Parser.assoc k (Parser.assoc_set k' v l) = if Parser.str_eqb k k' then Some v else Parser.assoc k l.
Proof.
  induction l as [|[a b] l IH]; cbn [Parser.assoc_set Parser.assoc]; [reflexivity|].
  destruct (Parser.str_eqb k' a) eqn:E1; cbn [Parser.assoc].
  - apply pstr_eqb_iff in E1. subst a. destruct (Parser.str_eqb k k'); reflexivity.
  - rewrite IH. destruct (Parser.str_eqb k a) eqn:E2; [|reflexivity].
    apply pstr_eqb_iff in E2. subst a. destruct (Parser.str_eqb k k') eqn:E3; [|reflexivity].
    apply pstr_eqb_iff in E3. subst k'. rewrite pstr_eqb_refl in E1. discriminate.
Qed.

Lemma assoc_app {B} k (a b : list (Parser.str * B)) :
  Parser.assoc k (a ++ b) = match Parser.assoc k a with Some v => Some v | None => Parser.assoc k b end.
Proof.
  induction a as [|[x y] a IH]; cbn [app Parser.assoc]; [reflexivity|]. destruct (Parser.str_eqb k x); [reflexivity|exact IH].
Qed.
