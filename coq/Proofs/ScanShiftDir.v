(* C15 tail independence of the scanner (see ScanShift.v): the family of directives and tags (Model/SDir.v) - the
   walk of ScanLockDir.v at the lock [shf_lock d]. *)
Require Import ScanShift.
Require ScanLockDir.

Theorem scan_tag_ok d : shf_scan_tag d.
Proof. exact (ScanLockDir.scan_tag_ok (shf_lock d)). Qed.
Theorem scan_directive_ok d : shf_scan_directive d.
Proof. exact (ScanLockDir.scan_directive_ok (shf_lock d)). Qed.

Print Assumptions scan_tag_ok.
Print Assumptions scan_directive_ok.
Check scan_tag_ok.
Check scan_directive_ok.
