(* C18 — the result of YamlDecoder::decode (model: Model/Decoders.v decode_model = encoding detection, a decoder
   made by new_decoder() with BOM sniffing, decode_loop) is the one-shot specification decode_spec of
   Spec/EncodingSpec.v, for every byte string, every trap and every callback; and what that specification says
   about encoded texts and about malformed input.

     decoder_call_ok         the sniffing decoder, once converting, meets the per-call specification
     sniff_first_step        the first call of a decoder that is AtStart = a call of a converting decoder after the
                             byte-order mark that Encoding::for_bom found
     decode_model_spec       result_of (decode_model trap input) = decode_spec trap input
     spec_*                  round trips (UTF-8, UTF-16LE/BE, with and without mark), Strict accepts exactly the
                             encodings of texts                                                          *)
From Coq Require Import List NArith ZArith Bool Lia Arith.
Import ListNotations.
Require Import Consts Decode TagSpec EncodingSpec Decoders DecodeProofs TagUtf8 DecoderLoop DecoderUtf8 DecoderUtf16.

(* [lia] meets division by 256, 1024 and 64 here (UTF-16 units, surrogate pairs, UTF-8 continuation bytes) *)
Ltac Zify.zify_post_hook ::= Z.to_euclidean_division_equations.
Open Scope N_scope.
Arguments N.add : simpl never.
Arguments N.sub : simpl never.
Arguments N.mul : simpl never.
Arguments N.div : simpl never.
Arguments N.modulo : simpl never.
Arguments N.eqb : simpl never.
Arguments N.ltb : simpl never.
Arguments N.leb : simpl never.
Arguments N.max : simpl never.
Arguments N.to_nat : simpl never.
Arguments N.of_nat : simpl never.

(* 1. The decoder once it is converting *)
Definition dec_bnd (e : encoding) (d : decoder) (rem : list N) : Prop :=
  dc_at_start d = false /\
  match dc_variant d with
  | VUtf8 s => e = Utf8 /\ u8_bnd s rem
  | VUtf16 be s => e = (if be then Utf16BE else Utf16LE) /\ u16_bnd s rem
  end.

Lemma decoder_call_ok : forall e d rem spare, dec_bnd e d rem ->
    call_ok decoder decoder_step (next_piece e) (dec_bnd e) 4 d rem spare.
Proof.
  intros e [start v] rem spare [Hs Hv]. cbn [dc_at_start dc_variant] in Hs, Hv. subst start.
  unfold call_ok, decoder_step. cbn [dc_at_start dc_variant].
  destruct v as [s|be s].
  - destruct Hv as [-> Hb]. cbn [variant_step next_piece].
    pose proof (u8_call_ok s rem spare Hb) as H. unfold call_ok, u8_step in H.
    destruct (u8_raw true s rem spare) as [[s' r] cs].
    destruct H as (Hw & rd0 & Hg & Hr). split; [exact Hw|]. exists rd0. split; [exact Hg|].
    destruct r as [|rd|ml af rd].
    + exact Hr.
    + destruct Hr as (H1 & H2 & H3 & H4). repeat split; try assumption.
    + destruct Hr as (H1 & H2 & H3 & H4 & H5). repeat split; try assumption.
  - destruct Hv as [-> Hb]. cbn [variant_step].
    assert (En : next_piece (if be then Utf16BE else Utf16LE) = utf16_next be) by (destruct be; reflexivity).
    rewrite En.
    pose proof (u16_call_ok be s rem spare Hb) as H. unfold call_ok, u16_step in H.
    destruct (u16_raw be true s rem spare) as [[s' r] cs].
    destruct H as (Hw & rd0 & Hg & Hr). split; [exact Hw|]. exists rd0. split; [exact Hg|].
    destruct r as [|rd|ml af rd].
    + exact Hr.
    + destruct Hr as (H1 & H2 & H3 & H4). repeat split; try assumption.
    + destruct Hr as (H1 & H2 & H3 & H4 & H5). repeat split; try assumption.
Qed.

Lemma next_piece_size : forall e bs, bs <> [] -> 1 <= psize (next_piece e bs) <= nlen bs.
Proof. intros [] bs H; [apply utf8_next_size|apply utf16_next_size|apply utf16_next_size]; exact H. Qed.

Lemma next_piece_bad_small : forall e bs ml, next_piece e bs = PBad ml -> ml <= 255.
Proof. intros [] bs ml H; [eapply utf8_bad_small|eapply utf16_bad_small|eapply utf16_bad_small]; exact H. Qed.

Lemma new_variant_bnd : forall e rem, dec_bnd e (Decoder false (new_variant e)) rem.
Proof.
  intros [] rem; split; try reflexivity; cbn [dc_variant new_variant]; (split; [reflexivity|]);
    [left; reflexivity|reflexivity|reflexivity].
Qed.

(* 2. BOM sniffing: the first call *)
Lemma for_bom_le : forall b e k, for_bom b = Some (e, k) -> k <= nlen b.
Proof.
  intros b e k H. unfold for_bom in H. destruct b as [|b0 [|b1 t]]; try discriminate.
  rewrite !nlen_cons.
  destruct ((b0 =? 239) && (b1 =? 187) && match t with b2 :: _ => b2 =? 191 | [] => false end) eqn:E1.
  - inversion H; subst. destruct t; [rewrite !andb_false_r in E1; discriminate|]. rewrite nlen_cons. lia.
  - destruct ((b0 =? 255) && (b1 =? 254)); [inversion H; lia|].
    destruct ((b0 =? 254) && (b1 =? 255)); [inversion H; lia|discriminate].
Qed.

Lemma choose_encoding_le : forall b, snd (choose_encoding b) <= nlen b.
Proof.
  intros b. unfold choose_encoding. destruct (for_bom b) as [[e k]|] eqn:E; cbn [snd]; [|lia].
  eapply for_bom_le; exact E.
Qed.

Lemma encoding_eqb_new : forall e, encoding_eqb (variant_encoding (new_variant e)) e = true.
Proof. intros []; reflexivity. Qed.

Lemma u8_raw_nil : forall spare, u8_raw true u8_new [] spare = (u8_new, XInputEmpty, []).
Proof. intros spare. reflexivity. Qed.

Section Sniff.
  Variables div min : N.
  Variable t : xtrap.
  Variable input : list N.

  Lemma sniff_first_step : forall cap,
      xloop_step decoder decoder_step div min t input
                 (XConfig 0 (new_decoder (fst (choose_encoding input))) [] cap)
      = xloop_step decoder decoder_step div min t input
                   (XConfig (snd (choose_encoding input)) (Decoder false (new_variant (fst (choose_encoding input)))) [] cap).
  Proof.
    intros cap. pose proof (choose_encoding_le input) as Hle.
    unfold xloop_step. cbn [x_total x_dec x_text x_cap text_len].
    destruct (N.ltb_spec (nlen input) 0) as [?|_]; [lia|].
    destruct (N.ltb_spec (nlen input) (snd (choose_encoding input))) as [?|_]; [lia|].
    replace (N.to_nat 0) with 0%nat by lia. cbn [skipn].
    unfold new_decoder, decoder_step at 1. cbn [dc_at_start dc_variant].
    destruct input as [|b0 tl].
    - (* no input: both give InputEmpty *)
      cbn [choose_encoding for_bom fst snd detect_utf16_endianness new_variant].
      replace (N.to_nat 0) with 0%nat by lia. cbn [skipn decoder_step dc_at_start dc_variant variant_step].
      rewrite u8_raw_nil. reflexivity.
    - unfold choose_encoding in *. destruct (for_bom (b0 :: tl)) as [[e k]|] eqn:Eb; cbn [fst snd] in *.
      + rewrite encoding_eqb_new.
        unfold decoder_step. cbn [dc_at_start dc_variant].
        destruct (variant_step (new_variant e) (skipn (N.to_nat k) (b0 :: tl)) (cap - 0)) as [[v' r] cs].
        destruct (cap - 0 <? text_len cs); [reflexivity|].
        destruct r as [|rd|ml af rd]; cbn [add_read]; [reflexivity| |].
        * replace (0 + (rd + k)) with (k + rd) by lia. reflexivity.
        * replace (0 + (rd + k)) with (k + rd) by lia. reflexivity.
      + replace (N.to_nat 0) with 0%nat by lia. cbn [skipn].
        unfold decoder_step. cbn [dc_at_start dc_variant]. reflexivity.
  Qed.

  Lemma sniff_loop : forall fuel cap,
      xloop_go decoder decoder_step div min fuel t input
               (XConfig 0 (new_decoder (fst (choose_encoding input))) [] cap)
      = xloop_go decoder decoder_step div min fuel t input
                 (XConfig (snd (choose_encoding input)) (Decoder false (new_variant (fst (choose_encoding input)))) [] cap).
  Proof.
    intros [|f] cap; [reflexivity|]. cbn [xloop_go]. rewrite sniff_first_step. reflexivity.
  Qed.
End Sniff.

(* 3. decode_model = decode_spec *)
Lemma decode_model_spec : forall t g input,
    result_of input (decode_model (xtrap_of t g) input) = decode_spec t input.
Proof.
  intros t g input. unfold decode_model, decode_spec, decode_as, xdecode_loop_impl, xdecode_loop, xinitial_config.
  pose proof (sniff_loop RESERVE_DIV RESERVE_MIN (xtrap_of t g) input (decode_fuel input)
                         (reserve 0 0 (nlen input))) as Hs.
  pose proof (choose_encoding_le input) as Hle.
  destruct (choose_encoding input) as [e k] eqn:Ec. cbn [fst snd] in Hs, Hle. rewrite Hs.
  rewrite (xloop_go_result decoder decoder_step (next_piece e) (dec_bnd e) DECODER_K RESERVE_DIV RESERVE_MIN
             (next_piece_size e) (next_piece_bad_small e) reserve_min_covers_decoder (decoder_call_ok e) t g input);
    cbn [x_dec x_total x_text x_cap].
  - reflexivity.
  - apply new_variant_bnd.
  - exact Hle.
  - unfold xneed, decode_fuel. cbn [x_total x_text x_cap].
    destruct (reserve 0 0 (nlen input) - text_len [] <? DECODER_K); lia.
Qed.

(* 4. The specification on encoded texts *)
Definition enc_char (e : encoding) (c : N) : list N :=
  match e with
  | Utf8 => utf8_char c
  | Utf16LE => utf16_char false c
  | Utf16BE => utf16_char true c
  end.

Lemma encode_cons : forall e c text, encode e (c :: text) = enc_char e c ++ encode e text.
Proof. intros [] c text; reflexivity. Qed.

Lemma encode_nil : forall e, encode e [] = [].
Proof. intros []; reflexivity. Qed.

Lemma utf8_char_encode : forall c, utf8_char c = utf8_encode c.
Proof. reflexivity. Qed.

Lemma skipn_nlen_app : forall (a b : list N), skipn (N.to_nat (nlen a)) (a ++ b) = b.
Proof. intros a b. unfold nlen. rewrite Nat2N.id. apply skipn_app_exact. Qed.

Lemma unit_of_bytes : forall be u, exists x y, unit_bytes be u = [x; y] /\ unit_of be x y = u.
Proof.
  intros [] u; unfold unit_bytes, unit_of; eexists _, _; (split; [reflexivity|lia]).
Qed.

Lemma unit_bytes_of : forall be x y, x < 256 -> y < 256 -> unit_bytes be (unit_of be x y) = [x; y].
Proof. intros be x y Hx Hy. unfold unit_bytes, unit_of. destruct be; f_equal; try lia; f_equal; lia. Qed.

Lemma scalar_not_surrogate : forall c, is_scalar_value c = true -> is_high c = false /\ is_low c = false /\ c <= 1114111.
Proof.
  intros c H. apply is_scalar_iff in H. unfold is_high, is_low. rewrite !andb_false_iff, !N.leb_gt. lia.
Qed.

Lemma next_encoded : forall e c rest, is_scalar_value c = true ->
    enc_char e c <> [] /\ next_piece e (enc_char e c ++ rest) = PChar c (nlen (enc_char e c)).
Proof.
  intros e c rest Hv.
  assert (H16 : forall be, utf16_char be c <> [] /\
                           utf16_next be (utf16_char be c ++ rest) = PChar c (nlen (utf16_char be c))).
  { intros be. destruct (scalar_not_surrogate c Hv) as (Hnh & Hnl & Hmax).
    unfold utf16_char, utf16_units. destruct (N.ltb_spec c 65536) as [Hs|Hs].
    - cbn [flat_map]. rewrite app_nil_r. destruct (unit_of_bytes be c) as (x & y & -> & Hu).
      split; [discriminate|]. cbn [app]. unfold utf16_next. cbv zeta. rewrite Hu, Hnh, Hnl. reflexivity.
    - cbv zeta. cbn [flat_map]. rewrite app_nil_r.
      set (hi := 55296 + (c - 65536) / 1024). set (lo := 56320 + (c - 65536) mod 1024).
      destruct (unit_of_bytes be hi) as (x & y & -> & Hu). destruct (unit_of_bytes be lo) as (x2 & y2 & -> & Hu2).
      split; [discriminate|]. cbn [app]. unfold utf16_next. cbv zeta. rewrite Hu, Hu2.
      assert (Hh : is_high hi = true) by (apply between_iff; unfold hi; lia).
      assert (Hl : is_low lo = true) by (apply between_iff; unfold lo; lia).
      rewrite Hh, Hl. f_equal. unfold astral, hi, lo. lia. }
  destruct e; cbn [enc_char next_piece]; [|apply H16|apply H16].
  rewrite utf8_char_encode.
  pose proof (utf8_round_trip c Hv) as Hd.
  destruct (utf8_encode c) as [|b bs] eqn:Ee; [discriminate|].
  split; [discriminate|].
  pose proof (utf8_decode_length _ _ _ Hd) as Hs.
  assert (Hvh : valid_head ((b :: bs) ++ rest) = Some (c, S (length bs))).
  { cbn [app]. unfold valid_head. rewrite Hs.
    change (b :: bs ++ rest) with ((b :: bs) ++ rest).
    change (S (length bs)) with (length (b :: bs)). rewrite firstn_app_exact, Hd. reflexivity. }
  rewrite (utf8_next_char _ _ _ Hvh). reflexivity.
Qed.

Definition char_piece (e : encoding) (c : N) : piece := PChar c (nlen (enc_char e c)).

Lemma pieces_encode : forall e text, Forall (fun c => is_scalar_value c = true) text ->
    pieces (next_piece e) (encode e text) = map (char_piece e) text.
Proof.
  intros e text H. induction H as [|c text Hc _ IH].
  - rewrite encode_nil. reflexivity.
  - rewrite encode_cons. destruct (next_encoded e c (encode e text) Hc) as [Hne Hn].
    rewrite (pieces_unfold (next_piece e) (next_piece_size e)).
    + rewrite Hn. cbn [psize map]. rewrite skipn_nlen_app, IH. reflexivity.
    + destruct (enc_char e c); [congruence|discriminate].
Qed.

Lemma apply_trap_chars : forall e t input text off acc,
    apply_trap t input off (map (char_piece e) text) acc = DText (acc ++ text).
Proof.
  intros e t input text. induction text as [|c text IH]; intros off acc; cbn [map apply_trap char_piece].
  - rewrite app_nil_r. reflexivity.
  - rewrite IH, <- app_assoc. reflexivity.
Qed.

(* every trap: a text encoded in e, behind any prefix that is skipped, decodes to itself *)
Lemma decode_as_encoded : forall e t pre text, Forall (fun c => is_scalar_value c = true) text ->
    decode_as e t (pre ++ encode e text) (nlen pre) = DText text.
Proof.
  intros e t pre text H. unfold decode_as. rewrite skipn_nlen_app, (pieces_encode e text H).
  apply apply_trap_chars.
Qed.

Lemma spec_round_trip : forall e t text, Forall (fun c => is_scalar_value c = true) text ->
    choose_encoding (encode e text) = (e, 0) -> decode_spec t (encode e text) = DText text.
Proof.
  intros e t text H Hc. unfold decode_spec. rewrite Hc. exact (decode_as_encoded e t [] text H).
Qed.

Lemma spec_round_trip_bom : forall e t text, Forall (fun c => is_scalar_value c = true) text ->
    decode_spec t (bom e ++ encode e text) = DText text.
Proof.
  intros e t text H. unfold decode_spec. rewrite detect_bom. exact (decode_as_encoded e t (bom e) text H).
Qed.

(* 5. Strict: Ok only for the encoding of a text, otherwise the first malformed sequence *)
Lemma strict_text : forall input ps off acc text,
    apply_trap SStrict input off ps acc = DText text -> exists cs, chars_of ps = Some cs /\ text = acc ++ cs.
Proof.
  intros input ps. induction ps as [|[c k|k] ps IH]; intros off acc text H; cbn [apply_trap] in H.
  - inversion H. exists []. split; [reflexivity|]. rewrite app_nil_r. reflexivity.
  - destruct (IH _ _ _ H) as (cs & Hc & ->). exists (c :: cs). cbn [chars_of fold_right].
    change (fold_right _ _ ps) with (chars_of ps). rewrite Hc. split; [reflexivity|].
    rewrite <- app_assoc. reflexivity.
  - discriminate.
Qed.

Lemma strict_error_or_text : forall input ps off acc,
    (exists text, apply_trap SStrict input off ps acc = DText text) \/
    (exists idx bad, apply_trap SStrict input off ps acc = DError idx bad).
Proof.
  intros input ps. induction ps as [|[c k|k] ps IH]; intros off acc; cbn [apply_trap].
  - left. eexists; reflexivity.
  - apply IH.
  - right. eexists _, _; reflexivity.
Qed.

(* the first piece is a character: its bytes are the encoding of a scalar value *)
Lemma next_char_inv : forall e rem c k, Forall (fun b => b < 256) rem -> next_piece e rem = PChar c k ->
    is_scalar_value c = true /\ k = nlen (enc_char e c) /\ firstn (N.to_nat k) rem = enc_char e c.
Proof.
  intros e rem c k Hb Hn.
  assert (H16 : forall be, utf16_next be rem = PChar c k ->
                           is_scalar_value c = true /\ k = nlen (utf16_char be c) /\ firstn (N.to_nat k) rem = utf16_char be c).
  { clear Hn. intros be Hn. destruct rem as [|b0 [|b1 tl]]; try discriminate.
    unfold utf16_next in Hn. cbv zeta in Hn.
    inversion Hb as [|? ? Hb0 Hb']; subst. inversion Hb' as [|? ? Hb1 Hb'']; subst.
    pose proof (unit_bytes_of be b0 b1 Hb0 Hb1) as Hbytes.
    set (u := unit_of be b0 b1) in *.
    assert (Hu : u < 65536) by (unfold u, unit_of; destruct be; lia).
    destruct (is_high u) eqn:Hh.
    - destruct tl as [|c0 [|c1 tl2]]; try discriminate.
      inversion Hb'' as [|? ? Hc0 Hb3]; subst. inversion Hb3 as [|? ? Hc1 _]; subst.
      pose proof (unit_bytes_of be c0 c1 Hc0 Hc1) as Hbytes2.
      set (v := unit_of be c0 c1) in *.
      destruct (is_low v) eqn:Hl; [|discriminate]. inversion Hn; subst c k. clear Hn.
      apply between_iff in Hh, Hl.
      assert (Ha : 65536 <= astral u v <= 1114111) by (unfold astral; lia).
      split; [apply is_scalar_iff; lia|].
      assert (Hchar : utf16_char be (astral u v) = [b0; b1; c0; c1]).
      { unfold utf16_char, utf16_units. rewrite (proj2 (N.ltb_ge (astral u v) 65536)) by lia. cbv zeta.
        replace (55296 + (astral u v - 65536) / 1024) with u by (unfold astral; lia).
        replace (56320 + (astral u v - 65536) mod 1024) with v by (unfold astral; lia).
        cbn [flat_map]. rewrite Hbytes, Hbytes2. reflexivity. }
      rewrite Hchar. split; [reflexivity|]. replace (N.to_nat 4) with 4%nat by lia. reflexivity.
    - destruct (is_low u) eqn:Hl; [discriminate|]. inversion Hn; subst c k. clear Hn.
      apply andb_false_iff in Hh, Hl. rewrite !N.leb_gt in Hh, Hl.
      split; [apply is_scalar_iff; lia|].
      assert (Hchar : utf16_char be u = [b0; b1]).
      { unfold utf16_char, utf16_units. rewrite (proj2 (N.ltb_lt u 65536)) by lia.
        cbn [flat_map]. rewrite Hbytes. reflexivity. }
      rewrite Hchar. split; [reflexivity|]. replace (N.to_nat 2) with 2%nat by lia. reflexivity. }
  destruct e; cbn [next_piece enc_char] in *; [|apply H16; exact Hn|apply H16; exact Hn].
  destruct (valid_head rem) as [[c' k']|] eqn:Hv.
  - rewrite (utf8_next_char _ _ _ Hv) in Hn. inversion Hn; subst c' k. clear Hn.
    destruct (valid_head_facts _ _ _ Hv) as (_ & Hk & _ & Hlen & Hf & Hs).
    split; [exact Hs|]. rewrite utf8_char_encode, Nat2N.id. split; [|exact Hf].
    rewrite <- Hf. unfold nlen. rewrite firstn_length. f_equal. lia.
  - rewrite (utf8_next_bad _ Hv) in Hn. discriminate.
Qed.

Lemma pieces_chars_encode : forall e n rem cs, (length rem <= n)%nat -> Forall (fun b => b < 256) rem ->
    chars_of (pieces (next_piece e) rem) = Some cs ->
    rem = encode e cs /\ Forall (fun c => is_scalar_value c = true) cs.
Proof.
  intros e. induction n as [|n IH]; intros rem cs Hlen Hb Hc.
  - destruct rem; [|cbn [length] in Hlen; lia]. cbn in Hc. inversion Hc. rewrite encode_nil. split; constructor.
  - destruct rem as [|b tl].
    { cbn in Hc. inversion Hc. rewrite encode_nil. split; constructor. }
    rewrite (pieces_unfold (next_piece e) (next_piece_size e)) in Hc by discriminate.
    cbn [chars_of fold_right] in Hc.
    destruct (next_piece e (b :: tl)) as [c k|k] eqn:Hn; [|discriminate].
    cbn [psize] in Hc.
    change (fold_right _ _ ?ps) with (chars_of ps) in Hc.
    destruct (chars_of (pieces (next_piece e) (skipn (N.to_nat k) (b :: tl)))) as [cs'|] eqn:Hc'; [|discriminate].
    inversion Hc; subst cs. clear Hc.
    destruct (next_char_inv e _ _ _ Hb Hn) as (Hs & Hk & Hf).
    pose proof (next_piece_size e (b :: tl) ltac:(discriminate)) as [Hk1 Hk2]. rewrite Hn in Hk1, Hk2. cbn [psize] in Hk1, Hk2.
    destruct (IH (skipn (N.to_nat k) (b :: tl)) cs') as [Hr Hsc].
    + rewrite skipn_length. cbn [length] in *. lia.
    + apply Forall_skipn. exact Hb.
    + exact Hc'.
    + split; [|constructor; assumption].
      rewrite encode_cons, <- Hf, <- Hr. symmetry. apply firstn_skipn.
Qed.

(* Strict returns a text only for the encoding of that text *)
Lemma strict_sound : forall input text, Forall (fun b => b < 256) input ->
    decode_spec SStrict input = DText text ->
    skipn (N.to_nat (snd (choose_encoding input))) input = encode (fst (choose_encoding input)) text
    /\ Forall (fun c => is_scalar_value c = true) text.
Proof.
  intros input text Hb H. unfold decode_spec in H. destruct (choose_encoding input) as [e k]. cbn [fst snd].
  unfold decode_as in H. destruct (strict_text _ _ _ _ _ H) as (cs & Hc & ->). cbn [app].
  apply (pieces_chars_encode e (length (skipn (N.to_nat k) input))); [lia|apply Forall_skipn; exact Hb|exact Hc].
Qed.

(* ... and otherwise reports the first malformed sequence: everything before it is the encoding of a text *)
Lemma strict_first_error : forall e n input off rem acc idx bad,
    (length rem <= n)%nat -> Forall (fun b => b < 256) rem ->
    apply_trap SStrict input off (pieces (next_piece e) rem) acc = DError idx bad ->
    exists text ml,
      off <= idx /\ firstn (N.to_nat (idx - off)) rem = encode e text /\
      Forall (fun c => is_scalar_value c = true) text /\
      next_piece e (skipn (N.to_nat (idx - off)) rem) = PBad ml /\ bad = slice input idx ml.
Proof.
  intros e. induction n as [|n IH]; intros input off rem acc idx bad Hlen Hb H.
  - destruct rem; [|cbn [length] in Hlen; lia]. cbn in H. discriminate.
  - destruct rem as [|b tl]; [cbn in H; discriminate|].
    rewrite (pieces_unfold (next_piece e) (next_piece_size e)) in H by discriminate.
    pose proof (next_piece_size e (b :: tl) ltac:(discriminate)) as [Hk1 Hk2].
    destruct (next_piece e (b :: tl)) as [c k|k] eqn:Hn; cbn [psize apply_trap] in *.
    + destruct (next_char_inv e _ _ _ Hb Hn) as (Hs & Hk & Hf).
      destruct (IH input (off + k) (skipn (N.to_nat k) (b :: tl)) (acc ++ [c]) idx bad) as (text & ml & Hle & Hpre & Hsc & Hbad & Hsl).
      * rewrite skipn_length. cbn [length] in *. lia.
      * apply Forall_skipn. exact Hb.
      * exact H.
      * exists (c :: text), ml. split; [lia|].
        replace (idx - off) with (k + (idx - (off + k))) by lia.
        split.
        { rewrite encode_cons, <- Hf, <- Hpre.
          rewrite N2Nat.inj_add. rewrite <- (firstn_skipn (N.to_nat k) (b :: tl)) at 1.
          rewrite firstn_app. rewrite firstn_length. rewrite firstn_firstn.
          replace (Init.Nat.min (N.to_nat k + N.to_nat (idx - (off + k))) (N.to_nat k)) with (N.to_nat k) by lia.
          f_equal. f_equal. unfold nlen in Hk2. cbn [length] in *. lia. }
        split; [constructor; assumption|]. split; [|exact Hsl].
        rewrite skipn_N_add. exact Hbad.
    + inversion H; subst idx bad. exists [], k. rewrite N.sub_diag. replace (N.to_nat 0) with 0%nat by lia.
      cbn [firstn skipn]. rewrite encode_nil. split; [lia|]. split; [reflexivity|]. split; [constructor|].
      split; [exact Hn|reflexivity].
Qed.

(* 6. Consequences for the model of decode *)
Lemma apply_trap_normal : forall t input ps off acc, apply_trap t input off ps acc <> DAbnormal.
Proof.
  intros t input ps. induction ps as [|[c k|k] ps IH]; intros off acc; cbn [apply_trap]; [discriminate|apply IH|].
  destruct t as [| | |cb]; [apply IH|discriminate|apply IH|].
  destruct (cb k 0 (skipn (N.to_nat off) input) acc) as [t2|[|]]; [apply IH|discriminate|discriminate].
Qed.

(* decode always ends, with a value of the specification: no panic of the loop, fuel left *)
Lemma decode_model_normal : forall t g input, result_of input (decode_model (xtrap_of t g) input) <> DAbnormal.
Proof.
  intros t g input. rewrite decode_model_spec. unfold decode_spec. destruct (choose_encoding input) as [e k].
  apply apply_trap_normal.
Qed.

Definition scalars (text : list N) : Prop := Forall (fun c => is_scalar_value c = true) text.
Definition bytes (input : list N) : Prop := Forall (fun b => b < 256) input.

Lemma model_round_trip : forall e t g text, scalars text -> detectable e text = true ->
    result_of (encode e text) (decode_model (xtrap_of t g) (encode e text)) = DText text.
Proof.
  intros e t g text Hs Hd. rewrite decode_model_spec. apply spec_round_trip; [exact Hs|].
  apply detect_no_bom. exact Hd.
Qed.

Lemma model_round_trip_bom : forall e t g text, scalars text ->
    result_of (bom e ++ encode e text) (decode_model (xtrap_of t g) (bom e ++ encode e text)) = DText text.
Proof. intros e t g text Hs. rewrite decode_model_spec. apply spec_round_trip_bom. exact Hs. Qed.

Lemma model_strict_sound : forall input text, bytes input ->
    result_of input (decode_model XStrict input) = DText text ->
    skipn (N.to_nat (snd (choose_encoding input))) input = encode (fst (choose_encoding input)) text /\ scalars text.
Proof.
  intros input text Hb H. change XStrict with (xtrap_of SStrict (fun _ _ _ _ => 0)) in H.
  rewrite decode_model_spec in H. apply strict_sound; assumption.
Qed.

Lemma model_strict_total : forall input,
    (exists text, result_of input (decode_model XStrict input) = DText text) \/
    (exists idx bad, result_of input (decode_model XStrict input) = DError idx bad).
Proof.
  intros input. change XStrict with (xtrap_of SStrict (fun _ _ _ _ => 0)). rewrite decode_model_spec.
  unfold decode_spec, decode_as. destruct (choose_encoding input) as [e k]. apply strict_error_or_text.
Qed.

Lemma model_strict_error : forall input idx bad, bytes input ->
    result_of input (decode_model XStrict input) = DError idx bad ->
    let e := fst (choose_encoding input) in
    let k := snd (choose_encoding input) in
    exists text ml,
      k <= idx /\ slice input k (idx - k) = encode e text /\ scalars text /\
      next_piece e (skipn (N.to_nat idx) input) = PBad ml /\ bad = slice input idx ml.
Proof.
  intros input idx bad Hb H. change XStrict with (xtrap_of SStrict (fun _ _ _ _ => 0)) in H.
  rewrite decode_model_spec in H. unfold decode_spec, decode_as in H.
  destruct (choose_encoding input) as [e k]. cbn [fst snd].
  destruct (strict_first_error e (length (skipn (N.to_nat k) input)) input k (skipn (N.to_nat k) input) [] idx bad
              (Nat.le_refl _) (Forall_skipn _ _ _ Hb) H) as (text & ml & Hle & Hpre & Hsc & Hbad & Hsl).
  exists text, ml. split; [exact Hle|]. split; [exact Hpre|]. split; [exact Hsc|]. split; [|exact Hsl].
  rewrite <- skipn_N_add in Hbad. replace (k + (idx - k)) with idx in Hbad by lia. exact Hbad.
Qed.

Ltac Zify.zify_post_hook ::= idtac.
