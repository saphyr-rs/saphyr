(* C01, bounded work over the BUFFERED input (any capacity >= 8): the buffered scanner never exhausts the fuel
   F = 2 * |input| + 10 that run_buf gives to every loop.  Route: FUEL TRANSFER through the strict reading of the
   relational calculus of ScanPair.v.  [rwpN N0] is [ScanPair.rwpG true N0]:
   (1) OutOfFuel on the BUFFERED side is not an escape: if the string run ends properly (value or error) the
       buffered run must end in the same way (or panic - excluded separately by ScanSafeTop.v); only OutOfFuel /
       Panic of the STRING side closes a goal (ScanFuelAll.v / ScanSafeStrTop.v exclude them at the top);
   (2) the calculus carries the bound [length (rem1 s1) <= N0] on the string side's remaining text (N0 = the length
       of the whole input at the top).
   The rules and the walk through the scanner are those of ScanPair*.v; the assembly is ScanFuelBufTop.v. *)
From Coq Require Import List NArith ZArith Bool Arith Lia.
Import ListNotations.
Require Import Parser SBase SPrim SDir SScalar SFetch SBuf InputRefine.
Require ScanPair.
Local Open Scope nat_scope.

Notation st1 := (sc strin).
Notation st2 := (sc bufin).
Notation M1 := (@M strin).
Notation M2 := (@M bufin).

(* everything but the input *)
Definition erase {I} (s : sc I) : sc unit :=
  {| sc_in := tt; sc_mark := sc_mark s; sc_tokens := sc_tokens s;
     sc_stream_start := sc_stream_start s; sc_stream_end := sc_stream_end s; sc_adjacent := sc_adjacent s;
     sc_ska := sc_ska s; sc_sks := sc_sks s; sc_indent := sc_indent s; sc_indents := sc_indents s;
     sc_flow_level := sc_flow_level s; sc_tokens_parsed := sc_tokens_parsed s;
     sc_token_available := sc_token_available s; sc_lws := sc_lws s; sc_ifms := sc_ifms s |}.

(* the state relation: same skeleton, and the buffered input holds exactly the string input's remaining characters *)
Definition SR (s1 : st1) (s2 : st2) : Prop := Rel (sc_in s1) (sc_in s2) /\ erase s1 = erase s2.

Definition bl2 (s : st2) : nat := length (b_buf (sc_in s)).
Definition rem1 (s : st1) : list chr := si_chars (sc_in s).
Definition rn1 (s : st1) (i : nat) : chr := nth i (rem1 s) 0%N.

Lemma erase_fields {I J} (s : sc I) (t : sc J) : erase s = erase t ->
  sc_mark s = sc_mark t /\ sc_tokens s = sc_tokens t /\ sc_stream_start s = sc_stream_start t
  /\ sc_stream_end s = sc_stream_end t /\ sc_adjacent s = sc_adjacent t /\ sc_ska s = sc_ska t
  /\ sc_sks s = sc_sks t /\ sc_indent s = sc_indent t /\ sc_indents s = sc_indents t
  /\ sc_flow_level s = sc_flow_level t /\ sc_tokens_parsed s = sc_tokens_parsed t
  /\ sc_token_available s = sc_token_available t /\ sc_lws s = sc_lws t
  /\ sc_ifms s = sc_ifms t.
Proof. exact (ScanPair.erase_fields s t). Qed.

Lemma erase_set_in {I} (i : I) (s : sc I) : erase (set_in i s) = erase s.
Proof. reflexivity. Qed.

Section RelCalc.
Variable cap : nat.
Hypothesis cap_ge : 8 <= cap.
(* the bound on the string side's remaining text (the length of the whole input, at the top) *)
Variable N0 : nat.
Notation sops := str_ops.
Notation bops := (buf_ops cap).

Definition rwpN {A1 A2} (m1 : M1 A1) (m2 : M2 A2) (Q : A1 -> st1 -> A2 -> st2 -> Prop) (s1 : st1) (s2 : st2) : Prop :=
  length (rem1 s1) <= N0 ->
  match m1 s1 with
  | Panic _ => True
  | OutOfFuel => True
  | Ok (a1, t1) => match m2 s2 with
                   | Ok (a2, t2) => length (rem1 t1) <= N0 /\ Q a1 t1 a2 t2
                   | Err _ _ => False
                   | Panic _ => True
                   | OutOfFuel => False
                   end
  | Err e1 k1 => match m2 s2 with
                 | Err e2 k2 => e1 = e2 /\ k1 = k2
                 | Ok _ => False
                 | Panic _ => True
                 | OutOfFuel => False
                 end
  end.
Notation rwp := rwpN.

(* the usual shape of a postcondition: equal values *)
Definition Qe {A} (P : A -> st1 -> st2 -> Prop) : A -> st1 -> A -> st2 -> Prop :=
  fun a1 t1 a2 t2 => a1 = a2 /\ P a1 t1 t2.

Lemma rwpN_pair {A1 A2} (m1 : M1 A1) (m2 : M2 A2) (Q : A1 -> st1 -> A2 -> st2 -> Prop) s1 s2 :
  rwp m1 m2 Q s1 s2 <-> ScanPair.rwpG true N0 m1 m2 Q s1 s2.
Proof. reflexivity. Qed.

(* unfolding: what a related pair of results means when the string side ended properly *)
Lemma rwp_elim {A1 A2} (m1 : M1 A1) (m2 : M2 A2) (Q : A1 -> st1 -> A2 -> st2 -> Prop) s1 s2 :
  rwp m1 m2 Q s1 s2 -> length (rem1 s1) <= N0 ->
  match m1 s1, m2 s2 with
  | Ok (a1, t1), Ok (a2, t2) => length (rem1 t1) <= N0 /\ Q a1 t1 a2 t2
  | Err e1 k1, Err e2 k2 => e1 = e2 /\ k1 = k2
  | Ok _, Err _ _ => False
  | Err _ _, Ok _ => False
  | Ok _, OutOfFuel => False
  | Err _ _, OutOfFuel => False
  | _, _ => True
  end.
Proof. exact (ScanPair.rwp_elim true N0 m1 m2 Q s1 s2). Qed.

(* the state relation under skeleton updates *)
Lemma SR_mark s1 s2 : SR s1 s2 -> sc_mark s1 = sc_mark s2.
Proof. exact (ScanPair.SR_mark s1 s2). Qed.
Lemma SR_rel s1 s2 : SR s1 s2 -> Rel (sc_in s1) (sc_in s2).
Proof. exact (ScanPair.SR_rel s1 s2). Qed.
Lemma SR_erase s1 s2 : SR s1 s2 -> erase s1 = erase s2.
Proof. exact (ScanPair.SR_erase s1 s2). Qed.
Lemma SR_intro s1 s2 : Rel (sc_in s1) (sc_in s2) -> erase s1 = erase s2 -> SR s1 s2.
Proof. exact (ScanPair.SR_intro s1 s2). Qed.

(* generic: both sides apply "the same" skeleton function, described on erased states *)
Lemma SR_lift (g : sc unit -> sc unit) (f1 : st1 -> st1) (f2 : st2 -> st2) s1 s2 :
  SR s1 s2 ->
  sc_in (f1 s1) = sc_in s1 -> sc_in (f2 s2) = sc_in s2 ->
  erase (f1 s1) = g (erase s1) -> erase (f2 s2) = g (erase s2) -> SR (f1 s1) (f2 s2).
Proof. exact (ScanPair.SR_lift g f1 f2 s1 s2). Qed.

(* the ONE place where the two sides see different values: the buffered length *)
Lemma rwp_buf_is_empty (Q : bool -> st1 -> bool -> st2 -> Prop) s1 s2 :
  Q (Nat.eqb (si_look (sc_in s1)) 0) s1 (Nat.eqb (bl2 s2) 0) s2 -> rwp (buf_is_empty sops) (buf_is_empty bops) Q s1 s2.
Proof. intros H. apply rwpN_pair. exact (ScanPair.rwp_buf_is_empty cap true N0 Q s1 s2 H). Qed.

(* [rpost k]: equal values, related states, at least k characters buffered on the buffered side. *)
Definition rpost {A} (k : nat) : A -> st1 -> A -> st2 -> Prop := Qe (fun _ t1 t2 => SR t1 t2 /\ k <= bl2 t2).

End RelCalc.
