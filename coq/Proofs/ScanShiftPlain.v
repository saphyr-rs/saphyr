(* C15 tail independence of the scanner (see ScanShift.v): the PLAIN SCALAR family - the walk of ScanLockPlain.v at
   the lock [shf_lock d]. *)
Require Import ScanShift.
Require ScanLockPlain.

Theorem scan_plain_scalar_ok d : shf_scan_plain_scalar d.
Proof. exact (ScanLockPlain.scan_plain_scalar_ok (shf_lock d)). Qed.

Print Assumptions scan_plain_scalar_ok.
