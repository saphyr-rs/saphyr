(* The scanner's dispatcher is the one of the SOURCE.
   Gen/Dispatch.v is regenerated on every run from the `match c { ... }` of Scanner::fetch_next_token
   (parser/src/scanner.rs): patterns, guards and actions of the arms, in source order, as the decision function
   [dispatch c nc fl adj].  This file ties the hand-written model to it:
     - [fetch_next_token_shape]: the model's fetch_next_token IS (convertibly: the proof is reflexivity, so it breaks
       when the model is edited) its prologue followed by [dispatch_tail], the if-chain of Model/SFetch.v;
     - [tbl_dispatch]: for every pair of characters, every flow level and every state, [dispatch_tail] runs exactly the
       fetch function the generated [dispatch] names;
     - [dispatch_cases]: hence a proof about fetch_next_token need not walk the chain: it shows its claim of each of
       the 13 actions, knowing of the characters what [dact_pre] says the guard of that action's arm has established;
     - [dispatch_both]: the same for a claim about two runs, over any two inputs, that take the same arm.
   The proof of [tbl_dispatch] does not follow the order of the arms: it splits on which of the listed characters [c]
   is (or none of them) and on the guard atoms, and compares the outcomes, so a harmless re-ordering of disjoint arms
   in the source keeps it valid, while a changed pattern, guard or action breaks it. *)
From Coq Require Import List NArith ZArith Bool Lia.
Import ListNotations.
Require Import Parser SBase SPrim SDir SScalar SFetch CharTraits Dispatch.
Open Scope N_scope.
Open Scope mon_scope.

Section Tie.
Context {I : Type} (ops : InputOps I) (F : nat).
Notation M := (@M I).

Definition run_dact (a : dact) (s : sc I) : M unit :=
  match a with
  | DFlowStart b => fetch_flow_collection_start ops F b
  | DFlowEnd b => fetch_flow_collection_end ops F b
  | DFlowEntry => fetch_flow_entry ops F
  | DBlockEntry => fetch_block_entry ops F
  | DKey => fetch_key ops F
  | DValue => fetch_value ops F
  | DFlowValue => fetch_flow_value ops F
  | DAnchor b => fetch_anchor ops F b
  | DTag => fetch_tag ops F
  | DBlockScalar b => fetch_block_scalar ops F b
  | DFlowScalar b => fetch_flow_scalar ops F b
  | DPlain => fetch_plain_scalar ops F
  | DUnexpected => fail 103 (sc_mark s)
  end.

(* the if-chain of Model/SFetch.v fetch_next_token, verbatim *)
Definition dispatch_tail (c nc : N) (s : sc I) : M unit :=
  let fl := 0 <? sc_flow_level s in
  let bz := is_blank_or_breakz nc in
  if c =? 91 then fetch_flow_collection_start ops F true
  else if c =? 123 then fetch_flow_collection_start ops F false
  else if c =? 93 then fetch_flow_collection_end ops F true
  else if c =? 125 then fetch_flow_collection_end ops F false
  else if c =? 44 then fetch_flow_entry ops F
  else if (c =? 45) && bz then fetch_block_entry ops F
  else if (c =? 63) && bz then fetch_key ops F
  else if (c =? 58) && bz then fetch_value ops F
  else if (c =? 58) && fl && (is_flow nc || (m_index (sc_mark s) =? sc_adjacent s)) then fetch_flow_value ops F
  else if c =? 42 then fetch_anchor ops F true
  else if c =? 38 then fetch_anchor ops F false
  else if c =? 33 then fetch_tag ops F
  else if (c =? 124) && negb fl then fetch_block_scalar ops F true
  else if (c =? 62) && negb fl then fetch_block_scalar ops F false
  else if c =? 39 then fetch_flow_scalar ops F true
  else if c =? 34 then fetch_flow_scalar ops F false
  else if (c =? 45) && negb bz then fetch_plain_scalar ops F
  else if ((c =? 58) || (c =? 63)) && negb bz && negb fl then fetch_plain_scalar ops F
  else if (c =? 37) || (c =? 64) || (c =? 96) then fail 103 (sc_mark s)
  else fetch_plain_scalar ops F.

(* the model's fetch_next_token is its prologue followed by [dispatch_tail] — by conversion *)
Lemma fetch_next_token_shape :
  fetch_next_token ops F =
  (look ops 1 ;;;
   s <- get ;;
   if negb (sc_stream_start s) then fetch_stream_start else
   skip_to_next_token ops F ;;;
   stale_simple_keys ;;;
   m <- mark ;;
   unroll_indent (Z.of_N (m_col m)) ;;;
   look ops 4 ;;;
   z <- next_is ops is_z ;;
   if z then fetch_stream_end else
   s <- get ;;
   c0 <- peek ops ;;
   dstart <- (if m_col (sc_mark s) =? 0 then if c0 =? 37 then ret false else next_is_document_start ops else ret false) ;;
   dend <- (if (m_col (sc_mark s) =? 0) && negb (c0 =? 37) && negb dstart then next_is_document_end ops else ret false) ;;
   if (m_col (sc_mark s) =? 0) && (c0 =? 37) then fetch_directive ops F
   else if dstart then fetch_document_indicator ops TDocumentStart
   else if dend then
     fetch_document_indicator ops TDocumentEnd ;;;
     skip_ws_to_eol ops F SkipYes ;;;
     b <- next_is ops is_breakz ;;
     if b then ret tt else m <- mark ;; fail 101 m
   else
   if (Z.of_N (m_col (sc_mark s)) <? sc_indent s)%Z then fail 102 (sc_mark s) else
   c <- peek ops ;; nc <- peekn ops 1 ;;
   dispatch_tail c nc s).
Proof. reflexivity. Qed.

Ltac split_char c k :=
  let E := fresh "E" in
  destruct (N.eqb_spec c k) as [E|E]; [subst c|].

(* THE TIE: the model's chain runs the fetch function the source's match names *)
Theorem tbl_dispatch (c nc : N) (s : sc I) :
  dispatch_tail c nc s =
  run_dact (dispatch c nc (0 <? sc_flow_level s) (m_index (sc_mark s) =? sc_adjacent s)) s.
Proof.
  unfold dispatch_tail, dispatch.
  set (fl := 0 <? sc_flow_level s). set (adj := m_index (sc_mark s) =? sc_adjacent s).
  set (bz := is_blank_or_breakz nc). set (fw := is_flow nc).
  split_char c 91; [reflexivity|]. split_char c 123; [reflexivity|].
  split_char c 93; [reflexivity|]. split_char c 125; [reflexivity|].
  split_char c 44; [reflexivity|].
  split_char c 45; [destruct bz; reflexivity|].
  split_char c 63; [destruct bz, fl; reflexivity|].
  split_char c 58; [destruct bz, fl, fw, adj; reflexivity|].
  split_char c 42; [reflexivity|]. split_char c 38; [reflexivity|]. split_char c 33; [reflexivity|].
  split_char c 124; [destruct fl; reflexivity|].
  split_char c 62; [destruct fl; reflexivity|].
  split_char c 39; [reflexivity|]. split_char c 34; [reflexivity|].
  split_char c 37; [reflexivity|]. split_char c 64; [reflexivity|]. split_char c 96; [reflexivity|].
  (* none of the listed characters *)
  repeat match goal with
         | H : ?x <> ?k |- _ => apply N.eqb_neq in H; rewrite ?H; clear H
         end.
  cbn [andb orb negb]. reflexivity.
Qed.

(* what the dispatcher does with an ordinary character: every character that no arm lists starts a plain scalar *)
Corollary dispatch_default (c nc : N) (fl adj : bool) :
  ~ In c [91; 123; 93; 125; 44; 45; 63; 58; 42; 38; 33; 124; 62; 39; 34; 37; 64; 96] ->
  dispatch c nc fl adj = DPlain.
Proof.
  intros H. cbn [In] in H. unfold dispatch.
  repeat (apply Decidable.not_or in H; destruct H as [? H]).
  repeat match goal with
         | E : ?k <> c |- _ => apply not_eq_sym, N.eqb_neq in E; rewrite ?E; clear E
         end.
  reflexivity.
Qed.

(* '-' before anything but a blank or the end of the line is the first character of a plain scalar *)
Corollary dispatch_dash (nc : N) (fl adj : bool) : is_blank_or_breakz nc = false -> dispatch 45 nc fl adj = DPlain.
Proof. intros H. unfold dispatch. rewrite H. reflexivity. Qed.

(* the three indicators that are neither a token nor the start of a scalar *)
Corollary dispatch_reserved (nc : N) (fl adj : bool) :
  dispatch 37 nc fl adj = DUnexpected /\ dispatch 64 nc fl adj = DUnexpected /\ dispatch 96 nc fl adj = DUnexpected.
Proof. repeat split. Qed.

(* c, nc, fl as in [dispatch].  At DFlowValue the guard's  is_flow nc || adj  is left out: fetch_flow_value tests the
   adjacency again itself, so no proof about it starts from what the guard knew. *)
Definition dact_pre (a : dact) (c nc : N) (fl : bool) : Prop :=
  match a with
  | DFlowStart q => c = if q then 91 else 123
  | DFlowEnd q => c = if q then 93 else 125
  | DFlowEntry => c = 44
  | DBlockEntry => c = 45 /\ is_blank_or_breakz nc = true
  | DKey => c = 63 /\ is_blank_or_breakz nc = true
  | DValue => c = 58 /\ is_blank_or_breakz nc = true
  | DFlowValue => c = 58 /\ fl = true
  | DAnchor b => c = if b then 42 else 38
  | DTag => c = 33
  | DBlockScalar l => c = (if l then 124 else 62) /\ fl = false
  | DFlowScalar q => c = if q then 39 else 34
  | DPlain | DUnexpected => True
  end.

Lemma dispatch_pre (c nc : N) (fl adj : bool) : dact_pre (dispatch c nc fl adj) c nc fl.
Proof.
  unfold dispatch.
  (* down the chain: the guard of an arm is what its action knows *)
  repeat match goal with
         | |- dact_pre (if ?g then _ else _) _ _ _ =>
             let G := fresh "G" in
             destruct g eqn:G;
             [cbn [dact_pre]; rewrite ?andb_true_iff, ?negb_true_iff, ?N.eqb_eq in G; tauto|]
         end.
  exact Logic.I.
Qed.

Lemma dact_pre_not_breakz (a : dact) (c nc : N) (fl : bool) :
  dact_pre a c nc fl -> match a with DPlain | DUnexpected => True | _ => is_breakz c = false end.
Proof.
  destruct a as [q|q| | | | | |q| |q|q| |]; cbn [dact_pre]; intros Hp.
  - subst c. destruct q; reflexivity.
  - subst c. destruct q; reflexivity.
  - subst c. reflexivity.
  - destruct Hp as [-> _]. reflexivity.
  - destruct Hp as [-> _]. reflexivity.
  - destruct Hp as [-> _]. reflexivity.
  - destruct Hp as [-> _]. reflexivity.
  - subst c. destruct q; reflexivity.
  - subst c. reflexivity.
  - destruct Hp as [-> _]. destruct q; reflexivity.
  - subst c. destruct q; reflexivity.
  - exact Logic.I.
  - exact Logic.I.
Qed.

Lemma dispatch_cases (W : M unit -> Prop) (c nc : N) (s : sc I) :
  (forall a, dact_pre a c nc (0 <? sc_flow_level s) -> W (run_dact a s)) -> W (dispatch_tail c nc s).
Proof. intros H. rewrite tbl_dispatch. apply H, dispatch_pre. Qed.
End Tie.

Lemma dispatch_both {I1 I2 : Type} (W : @M I1 unit -> @M I2 unit -> Prop) (ops1 : InputOps I1) (ops2 : InputOps I2)
  (F1 F2 : nat) (c nc c' nc' : N) (s1 : sc I1) (s2 : sc I2) :
  dispatch c' nc' (0 <? sc_flow_level s2) (m_index (sc_mark s2) =? sc_adjacent s2)
  = dispatch c nc (0 <? sc_flow_level s1) (m_index (sc_mark s1) =? sc_adjacent s1) ->
  (forall a, dact_pre a c nc (0 <? sc_flow_level s1) -> W (run_dact ops1 F1 a s1) (run_dact ops2 F2 a s2)) ->
  W (dispatch_tail ops1 F1 c nc s1) (dispatch_tail ops2 F2 c' nc' s2).
Proof. intros E H. rewrite !tbl_dispatch, E. apply H, dispatch_pre. Qed.
