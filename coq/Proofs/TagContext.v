(* C16 — a tagged scalar in the other two block positions, at TEXT level:

       "- " <tag> " x" LF            (entry of a block sequence)
       key ": " <tag> " x" LF        (value of a one-pair block mapping, key a one-word plain key)

   for EVERY tag text of Spec/TagSpec.v.  The scanner half reuses the block-context machinery of Proofs/ScanBlockProofs.v
   ([mkb], [dash_sp_p], [key_at_tok_p], [delivers]) and the end of the input of Proofs/ScalarContext.v ([end_unit],
   [end_scan_nil]); the tag itself is scanned by [tag_scans] of Proofs/TagPipeline.v (all spellings, decoded suffix); the
   parser half is stepped on the token list, the tag being resolved by [resolve_tag_expand] (= the specification's
   [expand]). *)
From Coq Require Import List NArith ZArith Bool Arith Lia.
Import ListNotations.
Require Import Parser TagSpec SBase SPrim SDir SScalar SFetch Pipe Drivers TagRun TagUtf8 TagScanText TagProofs TagPipeline ScanSimpl.
Require Import TokenGrammar FlowText BlockText ScanFlowProofs ScanBlockProofs ScanFrame ScalarContext ScalarContextFlow ScalarContext2Pos.
Open Scope N_scope.
Open Scope mon_scope.

#[local] Arguments N.eqb : simpl nomatch.
#[local] Arguments Nat.max : simpl nomatch.
#[local] Arguments Nat.leb : simpl nomatch.
#[local] Arguments Nat.ltb : simpl nomatch.
#[local] Arguments Nat.sub : simpl nomatch.
#[local] Arguments N.ltb : simpl nomatch.
#[local] Arguments N.leb : simpl nomatch.
#[local] Arguments Z.add : simpl never.
#[local] Arguments scan_tag : simpl never.
#[local] Arguments fnt_rest : simpl never.
#[local] Arguments need_comp : simpl never.
#[local] Arguments unroll_indent : simpl never.
#[local] Arguments roll_indent : simpl never.
#[local] Arguments roll_one_col_indent : simpl never.
#[local] Arguments unroll_non_block_indents : simpl never.
#[local] Arguments save_simple_key : simpl never.
#[local] Arguments popk : simpl never.
#[local] Arguments ntb : simpl never.
#[local] Arguments saved : simpl never.

(* 1. The scanner: '!' is dispatched to fetch_tag; fetch_tag in block context *)
Lemma rest_bang F cs l i ln c q adj ska k ind inds tp ta lws :
  (4 <= l)%nat -> (Z.of_N c <? ind)%Z = false ->
  fnt_rest F (mkb (33 :: cs) l (mkm i ln c) q adj ska k ind inds tp ta lws)
  = fetch_tag str_ops F (mkb (33 :: cs) l (mkm i ln c) q adj ska k ind inds tp ta lws).
Proof.
  intros Hl Hcol. destruct (leb_look l Hl) as [L3 L2].
  unfold fnt_rest, mkb, mkm. cbn. destruct (c =? 0); cbn;
    [ unfold next_is_document_start, next_is_document_end, next_3_are, assert_buflen; cbn; rewrite L3; cbn; rewrite L2; cbn;
      rewrite ?L3; cbn; rewrite ?L2; cbn; rewrite Hcol; cbn; reflexivity
    | rewrite Hcol; cbn; reflexivity ].
Qed.

Definition tag_tok (mk : marker) (n : nat) (h sfx : list N) : token := (mkspan mk (adv (N.of_nat n) mk), TTag h sfx).

Lemma fetch_tag_b F ttext h sfx rest l mk q adj ska k ind inds tp lws :
  tag_scans F (33 :: ttext) h sfx -> is_blank_or_breakz (hd 0 rest) = true ->
  ((ind =? Z.of_N (m_col mk))%Z = true -> inds <> []) ->
  exists l',
    fetch_tag str_ops F (mkb (33 :: ttext ++ rest) l mk q adj ska k ind inds tp false lws)
    = Ok (tt, mkb rest l' (adv (N.of_nat (length (33 :: ttext))) mk) (q ++ [tag_tok mk (length (33 :: ttext)) h sfx]) adj false
                (saved ska k ind inds tp q mk) ind inds tp false false).
Proof.
  intros HS HR Hreq.
  set (K := saved ska k ind inds tp q mk).
  destruct (HS rest l mk lws (mkb [] 0 mk q adj false K ind inds tp false false)
              ltac:(unfold tag_end; rewrite HR; reflexivity)) as (l' & _ & E).
  exists l'. unfold fetch_tag. cbn [bind].
  rewrite (save_key_b _ l mk q adj ska k ind inds tp false lws Hreq). fold K. unfold disallow_simple_key. unfold mkb at 1. cbn.
  unfold st, mkb in E. cbn in E. cbn [app] in E. rewrite E. cbn.
  unfold push_tok, mkb, tag_tok. cbn. reflexivity.
Qed.

(* 2. " x" LF and the end of the input behind a token that is still queued *)
Definition x_tok (i ln c : N) : token := (spn (mkm i ln c) (mkm (i + wlen 120 []) ln (c + wlen 120 [])), TScalar Plain [120]).

Lemma fetch_x_end F l mk q adj k ind inds ind1 inds1 tp :
  (5 <= F)%nat -> (stale_k k (adv 1 mk) && sk_required k) = false ->
  (ind <= Z.of_N (m_col mk + 1))%Z -> unroll_nb inds ind = (ind1, inds1) -> (0 <= ind1)%Z ->
  ((ind =? Z.of_N (m_col mk + 1))%Z = true -> inds <> []) ->
  exists l',
   fetch_next_token str_ops F (mkb [32; 120; 10] l mk q adj false k ind inds tp false false)
   = Ok (tt, mkb [] l' (mkm (m_index mk + 1 + wlen 120 [] + 1 + N.of_nat 0) (m_line mk + 1) (N.of_nat 0))
               (q ++ [x_tok (m_index mk + 1) (m_line mk) (m_col mk + 1)]) adj true
               (staled k (adv 1 mk)) ind1 inds1 tp false true).
Proof.
  destruct mk as [i ln c]. cbn [m_index m_line m_col]. change {| m_index := i; m_line := ln; m_col := c |} with (mkm i ln c).
  change (adv 1 (mkm i ln c)) with (mkm (i + 1) ln (c + 1)).
  intros HF Hst Hle Hnb H0 Hreq.
  destruct (word_value_step F 120 [] 0 [] (Nat.max (Nat.max (Nat.max l 1) 1) 4) (i + 1) ln (c + 1) q adj false (staled k (mkm (i + 1) ln (c + 1)))
              ind inds ind1 inds1 tp false false eq_refl eq_refl Hnb Hreq Logic.I H0 ltac:(cbn [length]; lia) ltac:(lia)) as (l' & E).
  exists l'.
  erewrite fnt_b; [ | apply (skip_spaces_b 1); [lia | reflexivity..] | exact Hst | cbn [m_col mkm]; apply unroll_keep; exact Hle ].
  cbn [repeat]. rewrite app_nil_r. change (N.of_nat 1) with 1.
  rewrite tail_char by reflexivity.
  rewrite rest_word_b; [ | reflexivity | apply N.eqb_neq; lia | apply Z.ltb_ge; exact Hle ].
  cbn [app repeat] in E. rewrite E. unfold saved, x_tok. reflexivity.
Qed.

Lemma staled_line k m : (sk_possible k = true -> m_line (sk_mark k) < m_line m) -> sk_possible (staled k m) = false.
Proof.
  intros H. unfold staled, stale_k. destruct (sk_possible k) eqn:E; [|cbn [andb]; exact E].
  cbn [andb]. rewrite (proj2 (N.ltb_lt _ _) (H eq_refl)). reflexivity.
Qed.
Lemma staled_mark k m : sk_mark (staled k m) = sk_mark k.
Proof. unfold staled. destruct (stale_k k m); reflexivity. Qed.
Lemma staled_poss k m : sk_possible (staled k m) = true -> sk_possible k = true.
Proof. unfold staled. destruct (stale_k k m); [discriminate|auto]. Qed.

(* two fetches: [t1] (its key may be pending), then [t2] with the rest of the input; then the end *)
Lemma end_unit2 F (s : sc strin) cs l mk t1 adj K ind inds tp l3 l3' mk3 t2 adj3 ska3 K3 ind3 inds3 lws3 :
  (3 <= F)%nat -> canon s ->
  fetch_next_token str_ops F s = Ok (tt, mkb cs l mk [t1] adj false K ind inds tp false false) ->
  snd t1 <> TStreamEnd -> snd t2 <> TStreamEnd -> key_free K ->
  fetch_next_token str_ops F (mkb cs l mk [t1] adj false (staled K mk) ind inds tp false false)
    = Ok (tt, mkb [] l3 mk3 [t1; t2] adj3 ska3 K3 ind3 inds3 tp false lws3) ->
  fetch_next_token str_ops F (mkb cs l mk [] adj false (staled K mk) ind inds (tp + 1) false false)
    = Ok (tt, mkb [] l3' mk3 [t2] adj3 ska3 K3 ind3 inds3 (tp + 1) false lws3) ->
  key_free K3 -> sk_possible (staled K3 mk3) = false -> grounded ind3 inds3 ->
  exists rest, map snd rest = snd t2 :: repeat TBlockEnd (nbe inds3) ++ [TStreamEnd] /\
    forall fuel acc, (length rest + 1 < fuel)%nat -> scan_all str_ops F fuel s acc = (rev acc ++ t1 :: rest, SEnded).
Proof.
  intros HF (Hq0 & Hta0 & Hse0) Hf Ht1 Ht2 HK Hf3a Hf3b HK3 Hnp3 Hg.
  set (S2 := mkb cs l mk [t1] adj false K ind inds tp false false) in *.
  assert (Hst : (stale_k K mk && sk_required K) = false) by (apply key_free_stale, HK).
  pose proof (need_b cs l mk t1 [] adj false K ind inds tp false false Hst) as Hn. cbn zeta in Hn. fold (staled K mk) in Hn. fold S2 in Hn.
  destruct (sk_possible (staled K mk) && (sk_token_number (staled K mk) =? tp)) eqn:Hp; cbn [orb] in Hn.
  - assert (Hst3 : (stale_k K3 mk3 && sk_required K3) = false) by (apply key_free_stale, HK3).
    destruct (end_scan_nil F l3 mk3 adj3 ska3 (staled (staled K3 mk3) mk3) ind3 inds3 (tp + 1 + 1) lws3 HF
                (key_free_staled _ _ (key_free_staled _ _ HK3)) Hg) as (toks & Hm & Hscan).
    exists (t2 :: toks). split; [cbn [map]; rewrite Hm; reflexivity|].
    intros fuel acc Hfuel. cbn [length] in Hfuel. destruct fuel as [|[|fuel]]; try lia.
    rewrite scan_all_S.
    rewrite (nt_of_ntb F 3 s (Some t1, mkb [] l3 mk3 [t2] adj3 ska3 (staled K3 mk3) ind3 inds3 (tp + 1) false lws3) Hse0 HF).
    + rewrite scan_all_S.
      rewrite (pop_b F [] l3 mk3 t2 [] adj3 ska3 (staled K3 mk3) ind3 inds3 (tp + 1) lws3 ltac:(lia) Ht2).
      * rewrite Hscan by lia. cbn [rev]. rewrite <- !app_assoc. reflexivity.
      * apply stale_staled, Hst3.
      * rewrite staled_idem, Hnp3. reflexivity.
    + rewrite (ntb_fetch F 2 s s S2 Hta0 (need_canon s Hq0) Hf eq_refl).
      rewrite (ntb_fetch F 1 S2 _ _ eq_refl Hn Hf3a eq_refl).
      apply ntb_pop_b; [exact Ht1 | exact Hst3 | rewrite Hnp3; reflexivity].
  - set (S1 := mkb cs l mk [] adj false (staled K mk) ind inds (tp + 1) false false) in *.
    destruct (end_unit F S1 l3' mk3 t2 adj3 ska3 K3 ind3 inds3 (tp + 1) lws3 HF (canon_b _ _ _ _ _ _ _ _ _ _) Hf3b Ht2 HK3 Hg)
      as (toks & Hm & Hscan).
    exists toks. split; [exact Hm|].
    intros fuel acc Hfuel. destruct fuel as [|fuel]; [lia|].
    rewrite scan_all_S.
    rewrite (nt_of_ntb F 2 s (Some t1, S1) Hse0 ltac:(lia)).
    + rewrite Hscan by lia. cbn [rev]. rewrite <- app_assoc. reflexivity.
    + rewrite (ntb_fetch F 1 s s S2 Hta0 (need_canon s Hq0) Hf eq_refl).
      unfold S2. apply ntb_pop_b; [exact Ht1 | exact Hst | exact Hp].
Qed.

(* 3. <tag> " x" LF ends the input: at a token position, and behind "key: " *)
Definition tail_x : list N := [32; 120; 10].
Definition ends_tagged (F : nat) (s : sc strin) (t1 : token) (n : nat) : Prop :=
  exists rest, map snd rest = TScalar Plain [120] :: repeat TBlockEnd n ++ [TStreamEnd] /\
    forall fuel acc, (length rest + 1 < fuel)%nat -> scan_all str_ops F fuel s acc = (rev acc ++ t1 :: rest, SEnded).

Lemma bang_first : first_ok 33. Proof. repeat split; reflexivity. Qed.

Lemma key_line_stale K mk mk' ln :
  (sk_possible K = true -> m_line (sk_mark K) = ln) -> ln < m_line mk' ->
  sk_possible (staled (staled (staled K mk) (adv 1 mk)) mk') = false.
Proof.
  intros H Hl. apply staled_line. intros Hp. rewrite !staled_mark.
  apply staled_poss, staled_poss in Hp. rewrite (H Hp). exact Hl.
Qed.

(* the common part: '!' has been dispatched to fetch_tag at the mark [mk], not left of the indentation; the tag
   token may carry a simple key that is not required and lies on this line *)
Lemma tagged_end F s ttext h sfx l' mk adj ska k ind inds ind1 inds1 tp lws :
  tag_scans F (33 :: ttext) h sfx -> (5 <= F)%nat -> canon s ->
  fetch_next_token str_ops F s = fetch_tag str_ops F (mkb (33 :: ttext ++ tail_x) l' mk [] adj ska k ind inds tp false lws) ->
  (ind <= Z.of_N (m_col mk))%Z -> inds <> [] ->
  key_free (saved ska k ind inds tp [] mk) ->
  (sk_possible (saved ska k ind inds tp [] mk) = true -> m_line (sk_mark (saved ska k ind inds tp [] mk)) = m_line mk) ->
  unroll_nb inds ind = (ind1, inds1) -> (0 <= ind1)%Z -> grounded ind1 inds1 ->
  ends_tagged F s (tag_tok mk (length (33 :: ttext)) h sfx) (nbe inds1).
Proof.
  intros HS HF Hcanon Hf Hind Hinds HK Hline Hnb H0 Hg.
  destruct (fetch_tag_b F ttext h sfx tail_x l' mk [] adj ska k ind inds tp lws HS eq_refl ltac:(intros _; exact Hinds))
    as (l2 & E).
  rewrite E in Hf. cbn [app] in Hf.
  set (n := length (33 :: ttext)) in *. set (K := saved ska k ind inds tp [] mk) in *.
  set (mk2 := adv (N.of_nat n) mk) in *.
  assert (Hle : (ind <= Z.of_N (m_col mk2 + 1))%Z) by (cbn [mk2 adv m_col]; lia).
  assert (Hreq : (ind =? Z.of_N (m_col mk2 + 1))%Z = true -> inds <> []) by (intros _; exact Hinds).
  assert (Hst2 : (stale_k (staled K mk2) (adv 1 mk2) && sk_required (staled K mk2)) = false)
    by (apply key_free_stale, key_free_staled, HK).
  destruct (fetch_x_end F l2 mk2 [tag_tok mk n h sfx] adj (staled K mk2) _ _ _ _ tp HF Hst2 Hle Hnb H0 Hreq) as (l3 & E3).
  destruct (fetch_x_end F l2 mk2 [] adj (staled K mk2) _ _ _ _ (tp + 1) HF Hst2 Hle Hnb H0 Hreq) as (l3' & E3').
  cbn [app] in E3, E3'.
  exact (end_unit2 F s tail_x l2 mk2 (tag_tok mk n h sfx) adj K _ _ tp l3 l3' _
           (x_tok (m_index mk2 + 1) (m_line mk2) (m_col mk2 + 1)) adj true _ _ _ true ltac:(lia) Hcanon Hf
           ltac:(discriminate) ltac:(discriminate) HK E3 E3'
           (key_free_staled _ _ (key_free_staled _ _ HK))
           ltac:(apply (key_line_stale K mk2 _ (m_line mk)); [exact Hline | cbn [mk2 adv mkm m_line]; lia]) Hg).
Qed.

Lemma tagged_end_tok F s ttext h sfx c top rest0 i ln :
  at_tok_p s (33 :: ttext ++ tail_x) c (top :: rest0) i ln -> (Z.of_N top < Z.of_nat c)%Z ->
  tag_scans F (33 :: ttext) h sfx -> (5 <= F)%nat ->
  ends_tagged F s (tag_tok (mkm i ln (N.of_nat c)) (length (33 :: ttext)) h sfx) (length (top :: rest0)).
Proof.
  intros Hat Hlt HS HF. set (cols := top :: rest0) in *.
  assert (Hbase : base_le cols (Z.of_nat c)) by (cbn; lia).
  destruct (arrive_tok_p F s 33 _ c [] cols i ln Hat bang_first eq_refl ltac:(constructor) Hbase ltac:(lia))
    as (Hcanon & l' & adj & k & tp & lws & Hl' & Hk & Hf).
  cbn [length repeat] in Hf.
  rewrite rest_bang in Hf; [ | exact Hl' | apply col_ge_top, Hbase ].
  destruct (grounded_stk cols ltac:(apply Forall_forall; auto)) as [Hg Hnn]. rewrite <- Hnn.
  apply (tagged_end F s ttext h sfx l' _ adj true k _ _ (fst (stk cols)) (snd (stk cols)) tp lws HS HF Hcanon Hf).
  - cbn [cols stk fst mkm m_col]. lia.
  - discriminate.
  - apply key_free_not_required. unfold saved, req. cbn [newkey sk_required m_col mkm].
    replace (fst (stk cols) =? Z.of_N (N.of_nat c))%Z with false; [reflexivity|]. symmetry. apply Z.eqb_neq. cbn [cols stk fst]. lia.
  - intros _. reflexivity.
  - apply unroll_nb_stk.
  - cbn [cols stk fst]. lia.
  - exact Hg.
Qed.

Lemma tagged_end_below F s ttext h sfx top rest0 i ln c0 :
  at_below_p s (32 :: 33 :: ttext ++ tail_x) (top :: rest0) i ln c0 ->
  tag_scans F (33 :: ttext) h sfx -> (5 <= F)%nat ->
  ends_tagged F s (tag_tok (mkm (i + 1) ln (c0 + 1)) (length (33 :: ttext)) h sfx) (length (top :: rest0)).
Proof.
  intros Hat HS HF.
  destruct (arrive_blank_p F s 33 _ (top :: rest0) i ln c0 Hat bang_first eq_refl ltac:(lia))
    as (Hcanon & l' & adj & ska & k & tp & top' & rest' & [= <- <-] & Hc1 & Hl' & Hk & Hf).
  set (cols := top :: rest0) in *.
  rewrite rest_bang in Hf; [ | exact Hl' | apply Z.ltb_ge; lia ].
  destruct (grounded_stk cols ltac:(apply Forall_forall; auto)) as [Hg Hnn]. rewrite <- Hnn.
  apply (tagged_end F s ttext h sfx l' _ adj ska k _ _ (fst (stk cols)) (snd (stk cols)) tp false HS HF Hcanon Hf).
  - cbn [mkm m_col]. lia.
  - discriminate.
  - unfold saved. destruct ska; [|apply key_free_not_possible, Hk].
    apply key_free_not_required. unfold req. cbn [newkey sk_required nbl in_needs_block_end]. apply andb_false_r.
  - unfold saved. destruct ska; [intros _; reflexivity | rewrite Hk; discriminate].
  - apply unroll_nb_below.
  - cbn [cols stk fst]. lia.
  - exact Hg.
Qed.

(* 4. The whole scanner on the two texts *)
Lemma scan_str_tagged txt pre s' t1 n :
  delivers (2 * length txt + 10) (start_state txt) pre s' -> ends_tagged (2 * length txt + 10) s' t1 n ->
  (length pre + n + 4 <= 2 * length txt + 10)%nat ->
  exists t0 rest, scan_str txt = (t0 :: pre ++ t1 :: rest, SEnded) /\ snd t0 = TStreamStart /\
                  map snd rest = TScalar Plain [120] :: repeat TBlockEnd n ++ [TStreamEnd].
Proof.
  intros Hd (rest & Hm & Hscan) Hlen. unfold scan_str. set (F := (2 * length txt + 10)%nat) in *.
  assert (Hl2 : length rest = (n + 2)%nat).
  { rewrite <- (map_length snd), Hm. cbn [length]. rewrite app_length, repeat_length. cbn [length]. lia. }
  assert (Etot : exists f2, (4 * F + 20 = S (length pre + f2) /\ length rest + 1 < f2)%nat).
  { exists (4 * F + 19 - length pre)%nat. unfold token in *. lia. }
  destruct Etot as (f2 & -> & Hf2).
  rewrite scan_all_S, (first_token F txt) by (unfold F; lia). cbv beta iota.
  change (mkst txt 1 (mk1 0) [] 0 true [dummy_key] 0 1 false true []) with (start_state txt).
  rewrite Hd, (Hscan f2 _ Hf2).
  eexists. exists rest. split; [rewrite rev_app_distr, rev_involutive; cbn [rev app]; reflexivity|].
  split; [reflexivity|exact Hm].
Qed.

(* (b) "- " <tag> " x" LF *)
Theorem scan_tagged_entry ttext h sfx :
  tag_text ttext h sfx ->
  exists t0 pre rest, scan_str (45 :: 32 :: ttext ++ tail_x)
    = (t0 :: pre ++ tag_tok (mkm 2 1 2) (length ttext) h sfx :: rest, SEnded) /\
    snd t0 = TStreamStart /\ map snd pre = [TBlockSequenceStart; TBlockEntry] /\
    map snd rest = [TScalar Plain [120]; TBlockEnd; TStreamEnd].
Proof.
  intros HT. set (txt := 45 :: 32 :: ttext ++ tail_x). set (F := (2 * length txt + 10)%nat).
  assert (Hlen : length txt = (length ttext + 5)%nat) by (unfold txt, tail_x; cbn [length]; rewrite app_length; cbn [length]; lia).
  destruct (tag_spelling_scans ttext h sfx F (tag_text_spelling _ _ _ HT) ltac:(unfold F; lia)) as (t' & Et & HS & _).
  pose proof (start_at_tok_p txt) as Hat. unfold txt in Hat at 2. rewrite Et in Hat. cbn [app] in Hat.
  destruct (dash_sp_p F (start_state txt) 33 (t' ++ tail_x) 0 [] [] true 0 1 Hat ltac:(constructor) ltac:(split; cbn; lia)
              ltac:(repeat split; reflexivity) eq_refl eq_refl ltac:(unfold F; lia)) as (pre & s' & Hd & Hmp & Hat').
  cbn [joined Nat.add] in Hat'.
  pose proof (tagged_end_tok F s' t' h sfx 2 (N.of_nat 0) [] (0 + 2) 1 Hat' ltac:(cbn; lia) HS ltac:(unfold F; lia)) as He.
  assert (Hlp : length pre = 2%nat) by (pose proof (f_equal (@length _) Hmp) as Hl; rewrite map_length in Hl; exact Hl).
  destruct (scan_str_tagged txt pre s' _ _ Hd He ltac:(rewrite Hlp; cbn [length]; lia)) as (t0 & rest & Es & H0 & Hm).
  exists t0, pre, rest. rewrite Et. split; [exact Es|]. split; [exact H0|]. split; [exact Hmp|exact Hm].
Qed.

