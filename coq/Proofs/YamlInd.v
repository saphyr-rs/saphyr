(* Loader.yaml: induction with the nested lists under Forall, and its equality test on the two collections. *)
From Coq Require Import List.
Import ListNotations.
Require Import Resolver Loader ListKit.

Section yaml_induction.
  Variable P : yaml -> Prop.
  Hypothesis Hval : forall s, P (YVal s).
  Hypothesis Hseq : forall l, Forall P l -> P (YSeq l).
  Hypothesis Hmap : forall l, Forall (fun kv => P (fst kv) /\ P (snd kv)) l -> P (YMap l).
  Hypothesis Hbad : P YBad.
  Fixpoint yaml_ind2 (t : yaml) : P t :=
    match t with
    | YVal s => Hval s
    | YSeq l => Hseq l (Forall_all P yaml_ind2 l)
    | YMap l => Hmap l (Forall_all _ (fun kv => conj (yaml_ind2 (fst kv)) (yaml_ind2 (snd kv))) l)
    | YBad => Hbad
    end.
End yaml_induction.

Lemma yaml_eqb_seq l l' : yaml_eqb (YSeq l) (YSeq l') = list_eqb yaml_eqb l l'. Proof. reflexivity. Qed.
Lemma yaml_eqb_map l l' : yaml_eqb (YMap l) (YMap l') = pairs_eqb yaml_eqb l l'. Proof. reflexivity. Qed.
