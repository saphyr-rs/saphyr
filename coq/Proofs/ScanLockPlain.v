(* The PLAIN SCALAR family under any lock.

   The word loop of scan_plain_scalar (a local [fix go] of the model) is [plain_go] of ScanLoops.v, generic in the
   fuel [F] of the inner loops, in [indent] and in [start] - the two sides have different fuels and different (but
   related) start marks.

   Everything is in lockstep:
   * [plain_chunk] consumes characters that are not blank / break / NUL (hence not LF) one at a time on both sides,
     with the same chunk counter [j]; the refresh [look (bufmaxlen sops)] = [look 128] happens at the same [j] on
     both sides; [next_can_be_plain_scalar] looks at position 1, aligned because position 0 is not a line feed;
   * [plain_blanks] consumes blanks in lockstep and line breaks as ONE step ([l_skip_break]); breaks are counted
     ([tb]) and never copied, so the collected text is the same; the tab-in-indentation branch calls the contract of
     skip_ws_to_eol; it exits on a character that is neither a blank nor a break, hence not a line feed: [lpost_al];
   * the word loop has the invariant [rn s1 0 <> 10] at its head (precondition of the contract, then the exit of
     [plain_blanks]) so that [nc <- peekn 1] and [next_can_be_plain_scalar] are aligned; the document-indicator test
     at column 0 needs no alignment; the indentation test after the blanks reads the column, the flow level and
     [indent] only. *)
From Coq Require Import List NArith ZArith Bool Arith Lia.
Import ListNotations.
Require Import Parser SBase SPrim SDir SScalar SFetch ScanLoops ScanLock ScanLockPrim.
Local Open Scope nat_scope.
Local Open Scope mon_scope.

Section Plain.
Context {b1 : chr -> chr} {M : marker -> marker -> Prop} {R : bst -> bst -> Prop} (L : lock b1 M R).
Local Notation wp := (lwp M).

(* what the word loop returns: the same (reversed) text, end marks with the same line and column *)
Definition PR (r1 r2 : list chr * marker) : Prop := fst r1 = fst r2 /\ M (snd r1) (snd r2).

(* plain_chunk: lockstep, the same chunk counter, two fuels *)
Lemma lwp_plain_chunk : forall f1 f2 j acc s1 s2, R s1 s2 ->
  wp (plain_chunk sops f1 j acc) (plain_chunk sops f2 j acc) (lpost R eq) s1 s2.
Proof.
  induction f1 as [|f1 IH]; intros f2 j acc s1 s2 H; [exact I|].
  destruct f2 as [|f2]; [apply lwp_oof_r|].
  rewrite (plain_chunk_S sops f1), (plain_chunk_S sops f2).
  destruct (Nat.leb (bufmaxlen sops - 1) j).
  { (* the refresh: the same [look 128] on both sides *)
    apply lwp_bind. apply (lwp_look L); [exact H|]. intros t1 t2 HT _ _ _ _ _. apply IH. exact HT. }
  apply lwp_bind. apply (lwp_next_is L); [exact H|exact (sees_is_blank_or_breakz _ (l_sees L))|]. cbv beta.
  apply lwp_bind. apply lwp_get. cbv beta. l_sync L H.
  destruct (is_blank_or_breakz (rn s1 0)) eqn:Eb.
  - apply lwp_bind. apply lwp_ret. cbn [orb]. apply lwp_ret_bpost; [reflexivity|exact H].
  - assert (N0 : rn s1 0 <> 10%N) by (intros E; rewrite E in Eb; discriminate).
    apply lwp_bind. apply (lwp_next_can_be_plain_scalar L); [exact H|exact N0|]. cbn [orb].
    destruct (plain_ok_val (0 <? sc_flow_level s1)%N s1); cbn [negb].
    + apply lwp_bind. apply (lwp_peek L); [exact H|]. cbv beta. rewrite (sees_other _ (l_sees L) _ N0).
      apply lwp_bind. apply (lwp_skip_non_blank L); [exact H|exact N0|]. intros t1 t2 HT _.
      apply IH. exact HT.
    + apply lwp_ret_bpost; [reflexivity|exact H].
Qed.

(* ---------------- plain_blanks: blanks in lockstep, a line break is one step on both sides ----------------
   exit: the next character is neither a blank nor a break, hence not a line feed *)
Lemma lwp_plain_blanks F1 F2 indent : forall f1 f2 start1 start2 lb tb ws s1 s2, R s1 s2 -> M start1 start2 ->
  wp (plain_blanks sops F1 f1 indent start1 lb tb ws) (plain_blanks sops F2 f2 indent start2 lb tb ws)
      (lpost_al R eq) s1 s2.
Proof.
  induction f1 as [|f1 IH]; intros f2 start1 start2 lb tb ws s1 s2 H HM; [exact I|].
  destruct f2 as [|f2]; [apply lwp_oof_r|]. cbn [plain_blanks].
  apply lwp_bind. apply (lwp_peek L); [exact H|]. cbv beta. b1_norm L.
  destruct (is_blank (rn s1 0)) eqn:Ebl.
  - assert (N0 : rn s1 0 <> 10%N) by (intros E; rewrite E in Ebl; discriminate).
    rewrite (sees_other _ (l_sees L) _ N0).
    assert (Hblank : forall ws',
              wp (skip_blank sops ;;; look sops 2 ;;; plain_blanks sops F1 f1 indent start1 lb tb ws')
                  (skip_blank sops ;;; look sops 2 ;;; plain_blanks sops F2 f2 indent start2 lb tb ws')
                  (lpost_al R eq) s1 s2).
    { intros ws'. apply lwp_bind. apply (lwp_skip_blank L); [exact H|exact N0|]. intros u1 u2 HU _.
      apply lwp_bind. apply (lwp_look L); [exact HU|]. intros v1 v2 HV _ _ _ _ _. apply IH; assumption. }
    apply lwp_bind. apply lwp_get. cbv beta. l_sync L H.
    destruct (negb (sc_lws s1)); [apply Hblank|].
    destruct ((Z.of_N (m_col (sc_mark s1)) <? indent)%Z && (rn s1 0 =? 9)%N); [|apply Hblank].
    (* a tab in the indentation *)
    eapply lwp_call_eq; [apply (skip_ws_to_eol_ok L); exact H|]. intros tw u1 u2 HU.
    apply lwp_bind. apply (lwp_next_is L); [exact HU|exact (sees_is_breakz _ (l_sees L))|]. cbv beta.
    destruct (is_breakz (rn u1 0)); [|apply lwp_fail; exact HM].
    apply lwp_bind. apply (lwp_look L); [exact HU|]. intros v1 v2 HV _ _ _ _ _. apply IH; assumption.
  - destruct (is_break (rn s1 0)) eqn:Ek.
    2:{ apply lwp_ret_bpost_al; [reflexivity|exact H|]. intros E. rewrite E in Ek. discriminate. }
    apply lwp_bind. apply lwp_get. cbv beta. l_sync L H.
    destruct (sc_lws s1).
    + apply lwp_bind. apply (l_skip_break L); [exact H|]. intros u1 u2 HU.
      apply lwp_bind. apply (lwp_look L); [exact HU|]. intros v1 v2 HV _ _ _ _ _. apply IH; assumption.
    + apply lwp_bind. apply (l_skip_break L); [exact H|]. intros u1 u2 HU.
      apply lwp_bind. apply (lwp_modify_l R); [apply (l_set_lws L); exact HU|reflexivity|]. intros w1 w2 HW _.
      apply lwp_bind. apply (lwp_look L); [exact HW|]. intros v1 v2 HV _ _ _ _ _. apply IH; assumption.
Qed.

(* the word loop: invariant [rn s1 0 <> 10] at the head *)
Lemma lwp_plain_go F1 F2 indent start1 start2 : M start1 start2 ->
  forall f1 f2 acc lb tb ws endm1 endm2 s1 s2, R s1 s2 -> rn s1 0 <> 10%N -> M endm1 endm2 ->
  wp (plain_go sops F1 indent start1 f1 acc lb tb ws endm1) (plain_go sops F2 indent start2 f2 acc lb tb ws endm2)
      (lpost R PR) s1 s2.
Proof.
  intros HS. induction f1 as [|f1 IH]; intros f2 acc lb tb ws endm1 endm2 s1 s2 H N0 HE; [exact I|].
  destruct f2 as [|f2]; [apply lwp_oof_r|]. cbn [plain_go].
  apply lwp_bind. apply (lwp_look L); [exact H|]. intros u1 u2 HU RU _ _ _ _.
  assert (NU : rn u1 0 <> 10%N) by (rewrite (rn_eq u1 s1 0 RU); exact N0).
  apply lwp_bind. apply lwp_get. cbv beta. l_sync L HU.
  apply lwp_bind.
  match goal with |- lwp _ _ _ ?Q _ _ => assert (HQ : forall di, Q di u1 di u2) end.
  2:{ destruct (sc_lws u1 && (m_col (sc_mark u1) =? 0)%N);
      [apply (lwp_next_is_document_indicator L); [exact HU|apply HQ] | apply lwp_ret; exact (HQ false)]. }
  intros di. cbv beta.
  apply lwp_bind. apply (lwp_peek L); [exact HU|]. cbv beta. rewrite (sees_other _ (l_sees L) _ NU).
  destruct (di || (rn u1 0 =? 35)%N); [apply lwp_ret_bpost; [split; [reflexivity|exact HE]|exact HU]|].
  apply lwp_bind. apply (lwp_peekn L); [exact HU|apply noLF_1; exact NU|]. cbv beta zeta. b1_norm L.
  match goal with |- lwp _ (if ?b then _ else _) _ _ _ _ => destruct b end; [apply (lwp_fail_mark L); exact HU|].
  apply lwp_bind.
  match goal with |- lwp _ _ _ ?Q _ _ => assert (HQ : forall cb, Q cb u1 cb u2) end.
  2:{ destruct (is_blank_or_breakz (rn u1 0));
      [apply lwp_ret; exact (HQ false) | apply (lwp_next_can_be_plain_scalar L); [exact HU|exact NU|apply HQ]]. }
  intros cb. cbv beta.
  apply lwp_bind.
  (* what happens after the word has been consumed *)
  match goal with |- lwp _ _ _ ?Q _ _ =>
    assert (HQ : forall r m1 m2 v1 v2, R v1 v2 -> M m1 m2 -> Q (r, m1) v1 (r, m2) v2) end.
  { intros [[[acc' lb'] tb'] ws'] m1 m2 v1 v2 HV HM. cbv beta iota.
    apply lwp_bind. apply (lwp_peek L); [exact HV|]. cbv beta. b1_norm L.
    destruct (negb (is_blank (rn v1 0) || is_break (rn v1 0)));
      [apply lwp_ret_bpost; [split; [reflexivity|exact HM]|exact HV]|].
    apply lwp_bind. apply (lwp_look L); [exact HV|]. intros w1 w2 HW _ _ _ _ _.
    eapply lwp_call_al_eq; [apply lwp_plain_blanks; [exact HW|exact HS]|]. intros [[lb2 tb2] ws2] x1 x2 HX NX.
    cbv beta iota.
    apply lwp_bind. apply lwp_get. cbv beta. l_sync L HX.
    match goal with |- lwp _ (if ?b then _ else _) _ _ _ _ => destruct b end;
      [apply lwp_ret_bpost; [split; [reflexivity|exact HM]|exact HX]|].
    apply IH; assumption. }
  destruct cb; [|apply lwp_ret; exact (HQ (acc, lb, tb, ws) endm1 endm2 u1 u2 HU HE)].
  match goal with |- lwp _ _ _ ?Q' _ _ =>
    assert (HW : forall a1 l1 t1 w1,
      wp (modify (set_lws false) ;;; skip_non_blank sops ;;; look sops (bufmaxlen sops) ;;;
           acc0 <- plain_chunk sops F1 0 (rn u1 0 :: a1) ;; m <- mark ;; ret (acc0, l1, t1, w1, m))
          (modify (set_lws false) ;;; skip_non_blank sops ;;; look sops (bufmaxlen sops) ;;;
           acc0 <- plain_chunk sops F2 0 (rn u1 0 :: a1) ;; m <- mark ;; ret (acc0, l1, t1, w1, m)) Q' u1 u2) end.
  { intros a1 l1 t1 w1.
    apply lwp_bind. apply (lwp_modify_l R); [apply (l_set_lws L); exact HU|reflexivity|]. intros v1 v2 HV RV.
    assert (NV : rn v1 0 <> 10%N) by (rewrite (rn_eq v1 u1 0 RV); exact NU).
    apply lwp_bind. apply (lwp_skip_non_blank L); [exact HV|exact NV|]. intros x1 x2 HX _.
    apply lwp_bind. apply (lwp_look L); [exact HX|]. intros y1 y2 HY _ _ _ _ _.
    eapply lwp_call_eq; [apply lwp_plain_chunk; exact HY|]. intros acc1 z1 z2 HZ.
    apply lwp_bind. apply (lwp_mark L); [exact HZ|]. intros HM. apply lwp_ret.
    exact (HQ (acc1, l1, t1, w1) _ _ z1 z2 HZ HM). }
  destruct (sc_lws u1); [destruct (negb lb); [|destruct (tb =? 0)%N]|]; exact (HW _ _ _ _).
Qed.

(* the contract *)
Theorem scan_plain_scalar_ok F1 F2 s1 s2 : R s1 s2 -> rn s1 0 <> 10%N ->
  wp (scan_plain_scalar sops F1) (scan_plain_scalar sops F2) (lpost R (Mtok M)) s1 s2.
Proof.
  intros H N0.
  rewrite (scan_plain_scalar_eq sops F1), (scan_plain_scalar_eq sops F2).
  apply lwp_bind. apply (lwp_unroll_non_block_indents L); [exact H|]. intros u1 u2 HU RU.
  assert (NU : rn u1 0 <> 10%N) by (rewrite (rn_eq u1 s1 0 RU); exact N0).
  apply lwp_bind. apply lwp_get. cbv beta zeta. l_sync L HU.
  match goal with |- lwp _ (if ?b then _ else _) _ _ _ _ => destruct b end; [apply (lwp_fail_mark L); exact HU|].
  eapply lwp_call; [apply lwp_plain_go; [exact (l_mark L _ _ HU)|exact HU|exact NU|exact (l_mark L _ _ HU)]|].
  intros r1 r2 v1 v2 [EF ME] HV.
  apply lwp_bind. apply lwp_get. cbv beta. l_sync L HV.
  apply lwp_bind.
  match goal with |- lwp _ _ _ ?Q _ _ => assert (HQ : forall w1 w2, R w1 w2 -> Q tt w1 tt w2) end.
  { intros w1 w2 HW. cbv beta. rewrite <- EF. destruct (fst r1); [apply lwp_fail; exact (l_mark L _ _ HU)|].
    apply lwp_ret_bpost; [|exact HW]. apply Mtok_mk. apply Msp_mk; [exact (l_mark L _ _ HU)|exact ME]. }
  destruct (sc_lws v1).
  - apply (lwp_allow_simple_key L); [exact HV|]. intros w1 w2 HW _. apply HQ. exact HW.
  - apply lwp_ret. apply HQ. exact HV.
Qed.

End Plain.
