(* The scanner over the buffered input against the scanner over the string input, in the calculus of ScanPair.v
   ([rwp] is [rwpG strict N0]): every derived primitive of Model/SPrim.v as a relational rule, the bulk input loops,
   and the contracts of skip_linebreak, skip_ws_to_eol, skip_to_next_token, skip_yaml_whitespace.

   Conventions.  [s1 t1 : st1] string side, [s2 t2 : st2] buffered side.  Every rule keeps [SR], tracks the buffered
   length [bl2] of the buffered side and says how the string side's remaining text [rem1] moved; the characters read
   are those of the STRING side ([rn1 s1 i]) on both sides.  Rules about functions that take [ops] stand inside
   [Section RelPrim] and take [cap cap_ge] first once it is closed.  The loops are in lockstep (same fuel on both
   sides) and look before they skip, so they need no buffered-length premise; no rule that skips characters applies
   without knowing that they are buffered ([1 <= bl2 s2], [n <= bl2 s2]): that is the obligation of the relational
   proof at each call site.

   Trap: [congruence] / [f_equal] on an equation between two [sc] records takes minutes.  [rel_skel] closes
   [SR (f s1) (f s2)] for the same composition of setters on both sides, [rel_eq] an equation between a term over the
   skeleton fields of [s1] and the same term over [s2]; [sr_sync H] rewrites the skeleton fields of [s2] into those of
   [s1], so that the two continuations test the same values and one [destruct] moves both sides ([rel_if]). *)
From Coq Require Import List NArith ZArith Bool Arith Lia.
Import ListNotations.
Require Import Parser SBase SPrim SDir SScalar SFetch SBuf InputRefine ScanPair ListKit.
Local Open Scope nat_scope.

(* lists: how [tl] / [skipn] / [nth] interact *)

Lemma rn1_eq (t1 s1 : st1) i : rem1 t1 = rem1 s1 -> rn1 t1 i = rn1 s1 i.
Proof. unfold rn1. intros ->. reflexivity. Qed.
Lemma rn1_tl (t1 s1 : st1) i : rem1 t1 = tl (rem1 s1) -> rn1 t1 i = rn1 s1 (S i).
Proof. unfold rn1. intros ->. destruct (rem1 s1); [destruct i; reflexivity|reflexivity]. Qed.
Lemma rn1_skipn (t1 s1 : st1) n i : rem1 t1 = skipn n (rem1 s1) -> rn1 t1 i = rn1 s1 (n + i).
Proof. unfold rn1. intros ->. apply nth_skipn. Qed.

(* the skeleton under [SR] *)
Lemma SR_fields s1 s2 : SR s1 s2 ->
  sc_mark s1 = sc_mark s2 /\ sc_tokens s1 = sc_tokens s2 /\ sc_stream_start s1 = sc_stream_start s2
  /\ sc_stream_end s1 = sc_stream_end s2 /\ sc_adjacent s1 = sc_adjacent s2 /\ sc_ska s1 = sc_ska s2
  /\ sc_sks s1 = sc_sks s2 /\ sc_indent s1 = sc_indent s2 /\ sc_indents s1 = sc_indents s2
  /\ sc_flow_level s1 = sc_flow_level s2 /\ sc_tokens_parsed s1 = sc_tokens_parsed s2
  /\ sc_token_available s1 = sc_token_available s2 /\ sc_lws s1 = sc_lws s2
  /\ sc_ifms s1 = sc_ifms s2.
Proof. intros H. apply erase_fields. apply SR_erase. exact H. Qed.

Lemma SR_tokens s1 s2 : SR s1 s2 -> sc_tokens s1 = sc_tokens s2.
Proof. intros H. apply SR_fields in H. tauto. Qed.
Lemma SR_stream_start s1 s2 : SR s1 s2 -> sc_stream_start s1 = sc_stream_start s2.
Proof. intros H. apply SR_fields in H. tauto. Qed.
Lemma SR_stream_end s1 s2 : SR s1 s2 -> sc_stream_end s1 = sc_stream_end s2.
Proof. intros H. apply SR_fields in H. tauto. Qed.
Lemma SR_adjacent s1 s2 : SR s1 s2 -> sc_adjacent s1 = sc_adjacent s2.
Proof. intros H. apply SR_fields in H. tauto. Qed.
Lemma SR_ska s1 s2 : SR s1 s2 -> sc_ska s1 = sc_ska s2.
Proof. intros H. apply SR_fields in H. tauto. Qed.
Lemma SR_sks s1 s2 : SR s1 s2 -> sc_sks s1 = sc_sks s2.
Proof. intros H. apply SR_fields in H. tauto. Qed.
Lemma SR_indent s1 s2 : SR s1 s2 -> sc_indent s1 = sc_indent s2.
Proof. intros H. apply SR_fields in H. tauto. Qed.
Lemma SR_indents s1 s2 : SR s1 s2 -> sc_indents s1 = sc_indents s2.
Proof. intros H. apply SR_fields in H. tauto. Qed.
Lemma SR_flow_level s1 s2 : SR s1 s2 -> sc_flow_level s1 = sc_flow_level s2.
Proof. intros H. apply SR_fields in H. tauto. Qed.
Lemma SR_tokens_parsed s1 s2 : SR s1 s2 -> sc_tokens_parsed s1 = sc_tokens_parsed s2.
Proof. intros H. apply SR_fields in H. tauto. Qed.
Lemma SR_token_available s1 s2 : SR s1 s2 -> sc_token_available s1 = sc_token_available s2.
Proof. intros H. apply SR_fields in H. tauto. Qed.
Lemma SR_lws s1 s2 : SR s1 s2 -> sc_lws s1 = sc_lws s2.
Proof. intros H. apply SR_fields in H. tauto. Qed.
Lemma SR_ifms s1 s2 : SR s1 s2 -> sc_ifms s1 = sc_ifms s2.
Proof. intros H. apply SR_fields in H. tauto. Qed.

(* [sr_fields H]: H : SR s1 s2; the 14 field equalities *)
Ltac sr_fields H :=
  let E := fresh "E" in
  pose proof (SR_fields _ _ H) as E; decompose [and] E; clear E.

(* [sr_sync H]: H : SR s1 s2; every skeleton field of s2 in the goal becomes the field of s1 *)
Ltac sr_sync H :=
  rewrite <- ?(SR_mark _ _ H), <- ?(SR_tokens _ _ H), <- ?(SR_stream_start _ _ H), <- ?(SR_stream_end _ _ H),
          <- ?(SR_adjacent _ _ H), <- ?(SR_ska _ _ H), <- ?(SR_sks _ _ H), <- ?(SR_indent _ _ H),
          <- ?(SR_indents _ _ H), <- ?(SR_flow_level _ _ H), <- ?(SR_tokens_parsed _ _ H),
          <- ?(SR_token_available _ _ H), <- ?(SR_lws _ _ H), <- ?(SR_ifms _ _ H).

Ltac skel_cbn :=
  cbn [sc_in sc_mark sc_tokens sc_stream_start sc_stream_end sc_adjacent sc_ska sc_sks sc_indent sc_indents
       sc_flow_level sc_tokens_parsed sc_token_available sc_lws sc_ifms
       upd set_in set_mark set_tokens set_flags set_ska set_lws set_adj set_ta set_ss set_se
       set_struct set_sks set_indent set_fl set_tp set_ifms].

(* [sr_fwd H]: H : SR s1 s2; every skeleton field of s1 in the goal becomes the field of s2 *)
Ltac sr_fwd H :=
  rewrite ?(SR_mark _ _ H), ?(SR_tokens _ _ H), ?(SR_stream_start _ _ H), ?(SR_stream_end _ _ H),
          ?(SR_adjacent _ _ H), ?(SR_ska _ _ H), ?(SR_sks _ _ H), ?(SR_indent _ _ H),
          ?(SR_indents _ _ H), ?(SR_flow_level _ _ H), ?(SR_tokens_parsed _ _ H),
          ?(SR_token_available _ _ H), ?(SR_lws _ _ H), ?(SR_ifms _ _ H).

(* [rel_eq]: x1 = x2, the same expression over the skeleton fields of two related states.
   (No [congruence]/[f_equal] on the 16-field record: it takes minutes.) *)
Ltac rel_eq_with H := skel_cbn; sr_fwd H; reflexivity.
Ltac rel_eq :=
  first [ reflexivity
        | match goal with H : SR _ _ |- _ = _ => solve [rel_eq_with H] end ].

(* [rel_skel]: SR (f s1) (f s2) from a hypothesis SR s1 s2, f the same composition of setters *)
Ltac rel_skel_with H :=
  split; [ exact (SR_rel _ _ H) | unfold erase; skel_cbn; sr_fwd H; reflexivity ].
Ltac rel_skel :=
  match goal with
  | H : SR ?a ?b |- SR ?a ?b => exact H
  | H : SR _ _ |- SR _ _ => solve [rel_skel_with H]
  end.

(* [rel_if]: both sides branch on the same test *)
Ltac rel_if :=
  match goal with
  | |- rwpG _ _ (if ?b1 then _ else _) (if ?b2 then _ else _) _ _ _ =>
      first [ constr_eq b1 b2 | replace b2 with b1 by rel_eq ];
      let Eb := fresh "Eb" in destruct b1 eqn:Eb
  end.

(* a related pair of states is one skeleton with two inputs *)
Definition with_in {I} (i : I) (u : sc unit) : sc I :=
  {| sc_in := i; sc_mark := sc_mark u; sc_tokens := sc_tokens u;
     sc_stream_start := sc_stream_start u; sc_stream_end := sc_stream_end u; sc_adjacent := sc_adjacent u;
     sc_ska := sc_ska u; sc_sks := sc_sks u; sc_indent := sc_indent u; sc_indents := sc_indents u;
     sc_flow_level := sc_flow_level u; sc_tokens_parsed := sc_tokens_parsed u;
     sc_token_available := sc_token_available u; sc_lws := sc_lws u; sc_ifms := sc_ifms u |}.
Lemma with_in_erase {I} (s : sc I) : s = with_in (sc_in s) (erase s).
Proof. destruct s; reflexivity. Qed.
(* last resort when [rel_skel] does not apply: after
     [destruct (SR_split _ _ H) as (i1 & i2 & u & -> & -> & R)]
   both states are [with_in _ u] and every skeleton computation is literally the same term on both sides *)
Lemma SR_split s1 s2 : SR s1 s2 -> exists i1 i2 u, s1 = with_in i1 u /\ s2 = with_in i2 u /\ Rel i1 i2.
Proof.
  intros [R E]. exists (sc_in s1), (sc_in s2), (erase s1). split; [apply with_in_erase|].
  split; [rewrite E; apply with_in_erase|exact R].
Qed.
Lemma SR_with_in i1 i2 u : Rel i1 i2 -> SR (with_in i1 u) (with_in i2 u).
Proof. intros R. split; [exact R|reflexivity]. Qed.

(* the skeleton of the buffered side follows the skeleton of the string side *)
Lemma SR_erase2 s1 s2 t1 t2 : SR s1 s2 -> SR t1 t2 -> erase t1 = erase s1 -> erase t2 = erase s2.
Proof. intros [_ E1] [_ E2] E. rewrite <- E2, E, E1. reflexivity. Qed.

(* generic rules *)
Section RelGen.
Variable strict : bool.
Variable N0 : nat.
Local Notation rwp := (rwpG strict N0).
(* calling a contract *)
Lemma rwp_bind_rpost {A B1 B2} k (m1 : M1 A) (m2 : M2 A) (f1 : A -> M1 B1) (f2 : A -> M2 B2)
  (Q : B1 -> st1 -> B2 -> st2 -> Prop) s1 s2 :
  rwp m1 m2 (rpost k) s1 s2 ->
  (forall a t1 t2, SR t1 t2 -> k <= bl2 t2 -> rwp (f1 a) (f2 a) Q t1 t2) ->
  rwp (bind m1 f1) (bind m2 f2) Q s1 s2.
Proof.
  intros H HK. apply rwp_bind_e. eapply rwp_mono; [exact H|].
  intros a1 t1 a2 t2 [E [HS HB]]. split; [exact E|]. apply HK; assumption.
Qed.
Lemma rwp_rpost_weaken {A} k k' (m1 : M1 A) (m2 : M2 A) s1 s2 :
  rwp m1 m2 (rpost k) s1 s2 -> k' <= k -> rwp m1 m2 (rpost k') s1 s2.
Proof.
  intros H Hk. eapply rwp_mono; [exact H|]. intros a1 t1 a2 t2 [E [HS HB]]. split; [exact E|]. split; [exact HS|lia].
Qed.
Lemma rwp_ret_rpost {A} k (a : A) s1 s2 : SR s1 s2 -> k <= bl2 s2 -> rwp (ret a) (ret a) (rpost k) s1 s2.
Proof. intros HS HB. apply rwp_ret. split; [reflexivity|]. split; assumption. Qed.

(* the same skeleton read on both sides (second premise: [rel_eq]) *)
Lemma rwp_gets_skel {A} (f1 : st1 -> A) (f2 : st2 -> A) (Q : A -> st1 -> A -> st2 -> Prop) s1 s2 :
  SR s1 s2 -> f1 s1 = f2 s2 -> Q (f1 s1) s1 (f1 s1) s2 -> rwp (gets f1) (gets f2) Q s1 s2.
Proof. intros _ E HQ. apply rwp_gets. rewrite <- E. exact HQ. Qed.

(* the same skeleton update on both sides (premises: [rel_skel], [reflexivity], [reflexivity]) *)
Lemma rwp_modify_skel (f1 : st1 -> st1) (f2 : st2 -> st2) (Q : unit -> st1 -> unit -> st2 -> Prop) s1 s2 :
  SR (f1 s1) (f2 s2) -> rem1 (f1 s1) = rem1 s1 -> bl2 (f2 s2) = bl2 s2 ->
  (forall t1 t2, SR t1 t2 -> rem1 t1 = rem1 s1 -> bl2 t2 = bl2 s2 -> Q tt t1 tt t2) ->
  rwp (modify f1) (modify f2) Q s1 s2.
Proof. intros HS HR HB HQ. apply rwp_modify; [rewrite HR; apply le_n|]. apply HQ; assumption. Qed.
Lemma rwp_put_skel (u1 : st1) (u2 : st2) (Q : unit -> st1 -> unit -> st2 -> Prop) s1 s2 :
  SR u1 u2 -> rem1 u1 = rem1 s1 -> bl2 u2 = bl2 s2 ->
  (forall t1 t2, SR t1 t2 -> rem1 t1 = rem1 s1 -> bl2 t2 = bl2 s2 -> Q tt t1 tt t2) ->
  rwp (put u1) (put u2) Q s1 s2.
Proof. intros HS HR HB HQ. apply rwp_put; [rewrite HR; apply le_n|]. apply HQ; assumption. Qed.

(* errors are reported at the mark, which is the same on both sides *)
Lemma rwp_fail_sr {A1 A2} site (Q : A1 -> st1 -> A2 -> st2 -> Prop) s1 s2 :
  SR s1 s2 -> rwp (@fail strin A1 site (sc_mark s1)) (@fail bufin A2 site (sc_mark s2)) Q s1 s2.
Proof. intros HS. apply rwp_fail. apply SR_mark. exact HS. Qed.

(* mark / token queue / flags: primitives that do not touch the input *)
(* mark: the same marker on both sides *)
Lemma rwp_mark (Q : marker -> st1 -> marker -> st2 -> Prop) s1 s2 :
  SR s1 s2 -> Q (sc_mark s1) s1 (sc_mark s1) s2 -> rwp mark mark Q s1 s2.
Proof. intros HS HQ. unfold mark. apply rwp_gets_skel; [exact HS|rel_eq|exact HQ]. Qed.

(* m <- mark ;; fail site m : the same error *)
Lemma rwp_mark_fail {A1 A2} site (Q : A1 -> st1 -> A2 -> st2 -> Prop) s1 s2 :
  SR s1 s2 ->
  rwp (bind mark (fun m => @fail strin A1 site m)) (bind mark (fun m => @fail bufin A2 site m)) Q s1 s2.
Proof. intros HS. apply rwp_bind. apply rwp_mark; [exact HS|]. apply rwp_fail. reflexivity. Qed.

(* adv_mark n: only the mark moves *)
Lemma rwp_adv_mark n (Q : unit -> st1 -> unit -> st2 -> Prop) s1 s2 :
  SR s1 s2 ->
  (forall t1 t2, SR t1 t2 -> rem1 t1 = rem1 s1 -> bl2 t2 = bl2 s2 -> Q tt t1 tt t2) ->
  rwp (adv_mark n) (adv_mark n) Q s1 s2.
Proof. intros HS HQ. unfold adv_mark. apply rwp_modify_skel; [rel_skel|reflexivity|reflexivity|exact HQ]. Qed.

(* push_tok: the same token appended on both sides *)
Lemma rwp_push_tok tk1 tk2 (Q : unit -> st1 -> unit -> st2 -> Prop) s1 s2 :
  SR s1 s2 -> tk1 = tk2 ->
  (forall t1 t2, SR t1 t2 -> rem1 t1 = rem1 s1 -> bl2 t2 = bl2 s2 -> Q tt t1 tt t2) ->
  rwp (push_tok tk1) (push_tok tk2) Q s1 s2.
Proof.
  intros HS <- HQ. unfold push_tok. apply rwp_modify_skel; [rel_skel|reflexivity|reflexivity|exact HQ].
Qed.

(* insert_token: the same insertion, or the same out-of-range panic *)
Lemma rwp_insert_token p1 p2 tk1 tk2 (Q : unit -> st1 -> unit -> st2 -> Prop) s1 s2 :
  SR s1 s2 -> p1 = p2 -> tk1 = tk2 ->
  (forall t1 t2, SR t1 t2 -> rem1 t1 = rem1 s1 -> bl2 t2 = bl2 s2 -> Q tt t1 tt t2) ->
  rwp (insert_token p1 tk1) (insert_token p2 tk2) Q s1 s2.
Proof.
  intros HS <- <- HQ B. unfold insert_token. rewrite <- (SR_tokens _ _ HS).
  destruct (insert_at (N.to_nat p1) tk1 (sc_tokens s1)) as [l|]; [|exact I].
  split; [exact B|]. apply HQ; [rel_skel|reflexivity|reflexivity].
Qed.

(* allow_simple_key / disallow_simple_key: only a flag moves *)
Lemma rwp_allow_simple_key (Q : unit -> st1 -> unit -> st2 -> Prop) s1 s2 :
  SR s1 s2 ->
  (forall t1 t2, SR t1 t2 -> rem1 t1 = rem1 s1 -> bl2 t2 = bl2 s2 -> Q tt t1 tt t2) ->
  rwp allow_simple_key allow_simple_key Q s1 s2.
Proof. intros HS HQ. unfold allow_simple_key. apply rwp_modify_skel; [rel_skel|reflexivity|reflexivity|exact HQ]. Qed.
Lemma rwp_disallow_simple_key (Q : unit -> st1 -> unit -> st2 -> Prop) s1 s2 :
  SR s1 s2 ->
  (forall t1 t2, SR t1 t2 -> rem1 t1 = rem1 s1 -> bl2 t2 = bl2 s2 -> Q tt t1 tt t2) ->
  rwp disallow_simple_key disallow_simple_key Q s1 s2.
Proof. intros HS HQ. unfold disallow_simple_key. apply rwp_modify_skel; [rel_skel|reflexivity|reflexivity|exact HQ]. Qed.

(* flow_level / in_flow / is_within_block: the same value on both sides *)
Lemma rwp_flow_level (Q : N -> st1 -> N -> st2 -> Prop) s1 s2 :
  SR s1 s2 -> Q (sc_flow_level s1) s1 (sc_flow_level s1) s2 -> rwp flow_level flow_level Q s1 s2.
Proof. intros HS HQ. unfold flow_level. apply rwp_gets_skel; [exact HS|rel_eq|exact HQ]. Qed.
Lemma rwp_in_flow (Q : bool -> st1 -> bool -> st2 -> Prop) s1 s2 :
  SR s1 s2 -> Q (0 <? sc_flow_level s1)%N s1 (0 <? sc_flow_level s1)%N s2 -> rwp in_flow in_flow Q s1 s2.
Proof.
  intros HS HQ. unfold in_flow. apply rwp_bind. apply rwp_flow_level; [exact HS|]. apply rwp_ret. exact HQ.
Qed.
Definition within_block1 (s1 : st1) : bool := match sc_indents s1 with [] => false | _ => true end.
Lemma rwp_is_within_block (Q : bool -> st1 -> bool -> st2 -> Prop) s1 s2 :
  SR s1 s2 -> Q (within_block1 s1) s1 (within_block1 s1) s2 -> rwp is_within_block is_within_block Q s1 s2.
Proof.
  intros HS HQ. unfold is_within_block. apply rwp_gets_skel; [exact HS| |exact HQ].
  rewrite (SR_indents _ _ HS). reflexivity.
Qed.

(* skeleton-only functions of SPrim.v (indentation, simple keys, flow level) *)
(* [skel_post Q s1 s2]: what the caller proves after a skeleton-only step (only a shorthand of this file) *)
Local Notation skel_post Q s1 s2 :=
  (forall t1 t2, SR t1 t2 -> rem1 t1 = rem1 s1 -> bl2 t2 = bl2 s2 -> Q tt t1 tt t2).

(* roll_indent: same indent push / token insertion on both sides (marks: premise mk1 = mk2, [rel_eq]) *)
Lemma rwp_roll_indent col number tk mk1 mk2 (Q : unit -> st1 -> unit -> st2 -> Prop) s1 s2 :
  SR s1 s2 -> mk1 = mk2 -> skel_post Q s1 s2 ->
  rwp (roll_indent col number tk mk1) (roll_indent col number tk mk2) Q s1 s2.
Proof.
  intros HS <- HQ. unfold roll_indent. apply rwp_bind. apply rwp_get. cbv beta. sr_sync HS.
  destruct (0 <? sc_flow_level s1)%N; [apply rwp_ret; apply HQ; [exact HS|reflexivity|reflexivity]|].
  match goal with |- context [let '(ind, inds) := ?X in _] => destruct X as [ind inds] end.
  destruct (ind <? Z.of_N col)%Z.
  - destruct (BLOCK_NESTING_MAX <=? N.of_nat (length inds))%N; [unfold rwp; split; reflexivity|].
    apply rwp_bind. apply rwp_put_skel; [rel_skel|reflexivity|reflexivity|]. intros u1 u2 HU RU BU.
    destruct number as [n|].
    + destruct (n <? sc_tokens_parsed s1)%N; [apply rwp_panic_r|].
      apply rwp_insert_token; [exact HU|reflexivity|reflexivity|]. intros t1 t2 HT RT BT. apply HQ; [exact HT|congruence|congruence].
    + apply rwp_push_tok; [exact HU|reflexivity|]. intros t1 t2 HT RT BT. apply HQ; [exact HT|congruence|congruence].
  - apply rwp_put_skel; [rel_skel|reflexivity|reflexivity|exact HQ].
Qed.

(* unroll_indent_go / unroll_indent: the same BlockEnd tokens *)
Lemma rwp_unroll_indent_go F col (Q : unit -> st1 -> unit -> st2 -> Prop) s1 s2 :
  SR s1 s2 -> skel_post Q s1 s2 ->
  rwp (unroll_indent_go F col) (unroll_indent_go F col) Q s1 s2.
Proof.
  revert Q s1 s2. induction F as [|F IHF]; intros Q s1 s2 HS HQ; [apply rwp_oof_l|].
  cbn [unroll_indent_go]. apply rwp_bind. apply rwp_get. cbv beta. sr_sync HS.
  destruct (col <? sc_indent s1)%Z; [|apply rwp_ret; apply HQ; [exact HS|reflexivity|reflexivity]].
  destruct (sc_indents s1) as [|i r] eqn:EI; [apply rwp_panic_r|].
  apply rwp_bind. apply rwp_put_skel; [rel_skel|reflexivity|reflexivity|]. intros u1 u2 HU RU BU.
  apply rwp_bind. destruct (in_needs_block_end i).
  - apply rwp_push_tok; [exact HU|reflexivity|]. intros v1 v2 HV RV BV.
    apply IHF; [exact HV|]. intros t1 t2 HT RT BT. apply HQ; [exact HT|congruence|congruence].
  - apply rwp_ret. apply IHF; [exact HU|]. intros t1 t2 HT RT BT. apply HQ; [exact HT|congruence|congruence].
Qed.

Lemma rwp_unroll_indent col (Q : unit -> st1 -> unit -> st2 -> Prop) s1 s2 :
  SR s1 s2 -> skel_post Q s1 s2 -> rwp (unroll_indent col) (unroll_indent col) Q s1 s2.
Proof.
  intros HS HQ. unfold unroll_indent. apply rwp_bind. apply rwp_get. cbv beta. sr_sync HS.
  destruct (0 <? sc_flow_level s1)%N; [apply rwp_ret; apply HQ; [exact HS|reflexivity|reflexivity]|].
  apply rwp_unroll_indent_go; [exact HS|exact HQ].
Qed.

(* roll_one_col_indent *)
Lemma rwp_roll_one_col_indent (Q : unit -> st1 -> unit -> st2 -> Prop) s1 s2 :
  SR s1 s2 -> skel_post Q s1 s2 -> rwp roll_one_col_indent roll_one_col_indent Q s1 s2.
Proof.
  intros HS HQ. unfold roll_one_col_indent. apply rwp_bind. apply rwp_get. cbv beta. sr_sync HS.
  match goal with |- rwp (if ?b then _ else _) _ _ _ _ => destruct b end.
  - apply rwp_put_skel; [rel_skel|reflexivity|reflexivity|exact HQ].
  - apply rwp_ret. apply HQ; [exact HS|reflexivity|reflexivity].
Qed.

(* unroll_non_block_indents *)
Lemma rwp_unroll_non_block_indents (Q : unit -> st1 -> unit -> st2 -> Prop) s1 s2 :
  SR s1 s2 -> skel_post Q s1 s2 -> rwp unroll_non_block_indents unroll_non_block_indents Q s1 s2.
Proof.
  intros HS HQ. unfold unroll_non_block_indents. apply rwp_modify; sr_sync HS;
  destruct (unroll_nb (sc_indents s1) (sc_indent s1)) as [ind l]; [apply le_n|]. apply HQ; [rel_skel|reflexivity|reflexivity].
Qed.

(* save_simple_key: the same key saved, or the same empty-indent-stack panic *)
Lemma rwp_save_simple_key (Q : unit -> st1 -> unit -> st2 -> Prop) s1 s2 :
  SR s1 s2 -> skel_post Q s1 s2 -> rwp save_simple_key save_simple_key Q s1 s2.
Proof.
  intros HS HQ. unfold save_simple_key. apply rwp_bind. apply rwp_get. cbv beta. sr_sync HS.
  destruct (sc_ska s1); [|apply rwp_ret; apply HQ; [exact HS|reflexivity|reflexivity]].
  apply rwp_bind.
  assert (HP : forall r, rwp (put (set_sks ({| sk_possible := true; sk_required := r;
                 sk_token_number := (sc_tokens_parsed s1 + N.of_nat (length (sc_tokens s1)))%N; sk_mark := sc_mark s1 |}
                 :: tl (sc_sks s1)) s1))
               (put (set_sks ({| sk_possible := true; sk_required := r;
                 sk_token_number := (sc_tokens_parsed s1 + N.of_nat (length (sc_tokens s1)))%N; sk_mark := sc_mark s1 |}
                 :: tl (sc_sks s1)) s2)) Q s1 s2).
  { intros r. apply rwp_put_skel; [rel_skel|reflexivity|reflexivity|exact HQ]. }
  match goal with |- rwp (if ?b then _ else _) _ _ _ _ => destruct b end.
  - destruct (sc_indents s1) as [|i r]; [apply rwp_panic_r|]. apply rwp_ret. apply HP.
  - apply rwp_ret. apply HP.
Qed.

(* remove_simple_key: the same error (site 43) or the same update *)
Lemma rwp_remove_simple_key (Q : unit -> st1 -> unit -> st2 -> Prop) s1 s2 :
  SR s1 s2 -> skel_post Q s1 s2 -> rwp remove_simple_key remove_simple_key Q s1 s2.
Proof.
  intros HS HQ. unfold remove_simple_key. apply rwp_bind. apply rwp_get. cbv beta. sr_sync HS.
  destruct (sc_sks s1) as [|k r]; [apply rwp_panic_r|].
  destruct (sk_possible k && sk_required k); [apply rwp_fail; reflexivity|].
  apply rwp_put_skel; [rel_skel|reflexivity|reflexivity|exact HQ].
Qed.

(* stale_simple_keys: the same error (site 44) or the same update *)
Lemma rwp_stale_simple_keys (Q : unit -> st1 -> unit -> st2 -> Prop) s1 s2 :
  SR s1 s2 -> skel_post Q s1 s2 -> rwp stale_simple_keys stale_simple_keys Q s1 s2.
Proof.
  intros HS HQ. unfold stale_simple_keys. apply rwp_bind. apply rwp_get. cbv beta zeta. sr_sync HS.
  match goal with |- rwp (if ?b then _ else _) _ _ _ _ => destruct b end; [apply rwp_fail; reflexivity|].
  apply rwp_put_skel; [rel_skel|reflexivity|reflexivity|exact HQ].
Qed.

(* end_implicit_mapping *)
Lemma rwp_end_implicit_mapping mk1 mk2 (Q : unit -> st1 -> unit -> st2 -> Prop) s1 s2 :
  SR s1 s2 -> mk1 = mk2 -> skel_post Q s1 s2 -> rwp (end_implicit_mapping mk1) (end_implicit_mapping mk2) Q s1 s2.
Proof.
  intros HS <- HQ. unfold end_implicit_mapping. apply rwp_bind. apply rwp_get. cbv beta. sr_sync HS.
  assert (H0 : rwp (ret tt) (ret tt) Q s1 s2) by (apply rwp_ret; apply HQ; [exact HS|reflexivity|reflexivity]).
  destruct (sc_ifms s1) as [|[| | |] r]; try exact H0.
  - apply rwp_bind. apply rwp_put_skel; [rel_skel|reflexivity|reflexivity|]. intros u1 u2 HU RU BU.
    apply rwp_push_tok; [exact HU|reflexivity|]. intros t1 t2 HT RT BT. apply HQ; [exact HT|congruence|congruence].
  - apply rwp_put_skel; [rel_skel|reflexivity|reflexivity|exact HQ].
Qed.

(* increase_flow_level: the same error (site 45) or the same push *)
Lemma rwp_increase_flow_level (Q : unit -> st1 -> unit -> st2 -> Prop) s1 s2 :
  SR s1 s2 -> skel_post Q s1 s2 -> rwp increase_flow_level increase_flow_level Q s1 s2.
Proof.
  intros HS HQ. unfold increase_flow_level. apply rwp_bind. apply rwp_get. cbv beta zeta. sr_sync HS.
  destruct (sc_flow_level s1 =? FLOW_LEVEL_MAX)%N.
  - unfold rwp. split; reflexivity.
  - apply rwp_put_skel; [rel_skel|reflexivity|reflexivity|exact HQ].
Qed.

(* decrease_flow_level *)
Lemma rwp_decrease_flow_level (Q : unit -> st1 -> unit -> st2 -> Prop) s1 s2 :
  SR s1 s2 -> skel_post Q s1 s2 -> rwp decrease_flow_level decrease_flow_level Q s1 s2.
Proof.
  intros HS HQ. unfold decrease_flow_level. apply rwp_bind. apply rwp_get. cbv beta. sr_sync HS.
  destruct (0 <? sc_flow_level s1)%N; [|apply rwp_ret; apply HQ; [exact HS|reflexivity|reflexivity]].
  destruct (sc_sks s1) as [|k r] eqn:EK; [apply rwp_panic_r|].
  apply rwp_put_skel; [rel_skel|reflexivity|reflexivity|exact HQ].
Qed.

(* the values read by the Input default methods (string side's remaining text) *)
Definition n2are (s1 : st1) (a b : chr) : bool := ((rn1 s1 0 =? a) && (rn1 s1 1 =? b))%N.
Definition n3are (s1 : st1) (a b c : chr) : bool := ((rn1 s1 0 =? a) && (rn1 s1 1 =? b) && (rn1 s1 2 =? c))%N.
Definition docind_val (s1 : st1) : bool :=
  if is_blank_or_breakz (rn1 s1 3) then (if n3are s1 46%N 46%N 46%N then true else n3are s1 45%N 45%N 45%N) else false.
Definition docstart_val (s1 : st1) : bool := if n3are s1 45%N 45%N 45%N then is_blank_or_breakz (rn1 s1 3) else false.
Definition docend_val (s1 : st1) : bool := if n3are s1 46%N 46%N 46%N then is_blank_or_breakz (rn1 s1 3) else false.
Definition plain_ok_val (fl : bool) (s1 : st1) : bool :=
  if ((rn1 s1 0 =? 58)%N && (is_blank_or_breakz (rn1 s1 1) || (fl && is_flow (rn1 s1 1)))) then false
  else if fl && is_flow (rn1 s1 0) then false else true.
(* number of characters [skip_linebreak] / [skip_break] consume *)
Definition lb_len (s1 : st1) : nat :=
  if ((rn1 s1 0 =? 13) && (rn1 s1 1 =? 10))%N then 2 else if is_break (rn1 s1 0) then 1 else 0.
Lemma lb_len_le2 s1 : lb_len s1 <= 2.
Proof. unfold lb_len. destruct (_ && _)%bool; [lia|]. destruct (is_break _); lia. Qed.
Lemma lb_len_break s1 : is_break (rn1 s1 0) = true -> 1 <= lb_len s1.
Proof. unfold lb_len. intros ->. destruct (_ && _)%bool; lia. Qed.

End RelGen.

Section RelPrim.
Variable cap : nat.
Hypothesis cap_ge : 8 <= cap.
Variable strict : bool.
Variable N0 : nat.
Local Notation rwp := (rwpG strict N0).
Notation sops := str_ops.
Notation bops := (buf_ops cap).

(* Input default methods (input.rs) *)
(* next_char_is c: one character buffered; both sides compare the string side's next character *)
Lemma rwp_next_char_is c (Q : bool -> st1 -> bool -> st2 -> Prop) s1 s2 :
  SR s1 s2 -> 1 <= bl2 s2 -> Q (rn1 s1 0 =? c)%N s1 (rn1 s1 0 =? c)%N s2 ->
  rwp (next_char_is sops c) (next_char_is bops c) Q s1 s2.
Proof using cap_ge.
  intros HS HB HQ. unfold next_char_is. apply rwp_bind. apply (rwp_peek cap cap_ge); [exact HS|exact HB|].
  apply rwp_ret. exact HQ.
Qed.
(* nth_char_is n c: n+1 characters buffered *)
Lemma rwp_nth_char_is n c (Q : bool -> st1 -> bool -> st2 -> Prop) s1 s2 :
  SR s1 s2 -> n < bl2 s2 -> Q (rn1 s1 n =? c)%N s1 (rn1 s1 n =? c)%N s2 ->
  rwp (nth_char_is sops n c) (nth_char_is bops n c) Q s1 s2.
Proof using cap_ge.
  intros HS HB HQ. unfold nth_char_is. apply rwp_bind. apply (rwp_peekn cap cap_ge); [exact HS|exact HB|].
  apply rwp_ret. exact HQ.
Qed.
(* next_is p *)
Lemma rwp_next_is p (Q : bool -> st1 -> bool -> st2 -> Prop) s1 s2 :
  SR s1 s2 -> 1 <= bl2 s2 -> Q (p (rn1 s1 0)) s1 (p (rn1 s1 0)) s2 ->
  rwp (next_is sops p) (next_is bops p) Q s1 s2.
Proof using cap_ge.
  intros HS HB HQ. unfold next_is. apply rwp_bind. apply (rwp_peek cap cap_ge); [exact HS|exact HB|].
  apply rwp_ret. exact HQ.
Qed.
(* next_2_are a b: two characters buffered (the string side's own assertion may panic: not our concern) *)
Lemma rwp_next_2_are a b (Q : bool -> st1 -> bool -> st2 -> Prop) s1 s2 :
  SR s1 s2 -> 2 <= bl2 s2 -> Q (n2are s1 a b) s1 (n2are s1 a b) s2 ->
  rwp (next_2_are sops a b) (next_2_are bops a b) Q s1 s2.
Proof using cap_ge.
  intros HS HB HQ. unfold next_2_are. apply rwp_bind. apply (rwp_assert_buflen cap cap_ge); [exact HB|].
  apply rwp_bind. apply (rwp_peek cap cap_ge); [exact HS|lia|].
  apply rwp_bind. apply (rwp_peekn cap cap_ge); [exact HS|lia|].
  apply rwp_ret. exact HQ.
Qed.
(* next_3_are a b c: three characters buffered *)
Lemma rwp_next_3_are a b c (Q : bool -> st1 -> bool -> st2 -> Prop) s1 s2 :
  SR s1 s2 -> 3 <= bl2 s2 -> Q (n3are s1 a b c) s1 (n3are s1 a b c) s2 ->
  rwp (next_3_are sops a b c) (next_3_are bops a b c) Q s1 s2.
Proof using cap_ge.
  intros HS HB HQ. unfold next_3_are. apply rwp_bind. apply (rwp_assert_buflen cap cap_ge); [exact HB|].
  apply rwp_bind. apply (rwp_peek cap cap_ge); [exact HS|lia|].
  apply rwp_bind. apply (rwp_peekn cap cap_ge); [exact HS|lia|].
  apply rwp_bind. apply (rwp_peekn cap cap_ge); [exact HS|lia|].
  apply rwp_ret. exact HQ.
Qed.
(* next_is_document_indicator / _start / _end: four characters buffered *)
Lemma rwp_next_is_document_indicator (Q : bool -> st1 -> bool -> st2 -> Prop) s1 s2 :
  SR s1 s2 -> 4 <= bl2 s2 -> Q (docind_val s1) s1 (docind_val s1) s2 ->
  rwp (next_is_document_indicator sops) (next_is_document_indicator bops) Q s1 s2.
Proof using cap_ge.
  intros HS HB HQ. unfold next_is_document_indicator. apply rwp_bind. apply (rwp_assert_buflen cap cap_ge); [exact HB|].
  apply rwp_bind. apply (rwp_peekn cap cap_ge); [exact HS|lia|]. unfold docind_val in HQ.
  destruct (is_blank_or_breakz (rn1 s1 3)); [|apply rwp_ret; exact HQ].
  apply rwp_bind. apply rwp_next_3_are; [exact HS|lia|].
  destruct (n3are s1 46%N 46%N 46%N); [apply rwp_ret; exact HQ|]. apply rwp_next_3_are; [exact HS|lia|exact HQ].
Qed.
Lemma rwp_next_is_document_start (Q : bool -> st1 -> bool -> st2 -> Prop) s1 s2 :
  SR s1 s2 -> 4 <= bl2 s2 -> Q (docstart_val s1) s1 (docstart_val s1) s2 ->
  rwp (next_is_document_start sops) (next_is_document_start bops) Q s1 s2.
Proof using cap_ge.
  intros HS HB HQ. unfold next_is_document_start. apply rwp_bind. apply (rwp_assert_buflen cap cap_ge); [exact HB|].
  apply rwp_bind. apply rwp_next_3_are; [exact HS|lia|]. unfold docstart_val in HQ.
  destruct (n3are s1 45%N 45%N 45%N); [|apply rwp_ret; exact HQ].
  apply rwp_bind. apply (rwp_peekn cap cap_ge); [exact HS|lia|]. apply rwp_ret. exact HQ.
Qed.
Lemma rwp_next_is_document_end (Q : bool -> st1 -> bool -> st2 -> Prop) s1 s2 :
  SR s1 s2 -> 4 <= bl2 s2 -> Q (docend_val s1) s1 (docend_val s1) s2 ->
  rwp (next_is_document_end sops) (next_is_document_end bops) Q s1 s2.
Proof using cap_ge.
  intros HS HB HQ. unfold next_is_document_end. apply rwp_bind. apply (rwp_assert_buflen cap cap_ge); [exact HB|].
  apply rwp_bind. apply rwp_next_3_are; [exact HS|lia|]. unfold docend_val in HQ.
  destruct (n3are s1 46%N 46%N 46%N); [|apply rwp_ret; exact HQ].
  apply rwp_bind. apply (rwp_peekn cap cap_ge); [exact HS|lia|]. apply rwp_ret. exact HQ.
Qed.
(* next_can_be_plain_scalar fl: two characters buffered *)
Lemma rwp_next_can_be_plain_scalar fl (Q : bool -> st1 -> bool -> st2 -> Prop) s1 s2 :
  SR s1 s2 -> 2 <= bl2 s2 -> Q (plain_ok_val fl s1) s1 (plain_ok_val fl s1) s2 ->
  rwp (next_can_be_plain_scalar sops fl) (next_can_be_plain_scalar bops fl) Q s1 s2.
Proof using cap_ge.
  intros HS HB HQ. unfold next_can_be_plain_scalar.
  apply rwp_bind. apply (rwp_peekn cap cap_ge); [exact HS|lia|].
  apply rwp_bind. apply (rwp_peek cap cap_ge); [exact HS|lia|]. unfold plain_ok_val in HQ.
  destruct ((rn1 s1 0 =? 58)%N && (is_blank_or_breakz (rn1 s1 1) || fl && is_flow (rn1 s1 1))); [apply rwp_ret; exact HQ|].
  destruct (fl && is_flow (rn1 s1 0)); apply rwp_ret; exact HQ.
Qed.

(* mark primitives that consume input *)
(* skip_blank: one buffered character consumed, the mark advanced *)
Lemma rwp_skip_blank (Q : unit -> st1 -> unit -> st2 -> Prop) s1 s2 :
  SR s1 s2 -> 1 <= bl2 s2 ->
  (forall t1 t2, SR t1 t2 -> rem1 t1 = tl (rem1 s1) -> bl2 t2 = bl2 s2 - 1 -> Q tt t1 tt t2) ->
  rwp (skip_blank sops) (skip_blank bops) Q s1 s2.
Proof using cap_ge.
  intros HS HB HQ. unfold skip_blank. apply rwp_bind. apply (rwp_in_skip cap cap_ge); [exact HS|exact HB|].
  intros u1 u2 HU R1 _ B1. apply rwp_adv_mark; [exact HU|]. intros t1 t2 HT R2 B2. apply HQ; [exact HT|congruence|congruence].
Qed.
(* skip_non_blank: same, and leading_whitespace := false *)
Lemma rwp_skip_non_blank (Q : unit -> st1 -> unit -> st2 -> Prop) s1 s2 :
  SR s1 s2 -> 1 <= bl2 s2 ->
  (forall t1 t2, SR t1 t2 -> rem1 t1 = tl (rem1 s1) -> bl2 t2 = bl2 s2 - 1 -> Q tt t1 tt t2) ->
  rwp (skip_non_blank sops) (skip_non_blank bops) Q s1 s2.
Proof using cap_ge.
  intros HS HB HQ. unfold skip_non_blank. apply rwp_bind. apply (rwp_in_skip cap cap_ge); [exact HS|exact HB|].
  intros u1 u2 HU R1 _ B1. apply rwp_bind. apply rwp_adv_mark; [exact HU|]. intros v1 v2 HV R2 B2.
  apply rwp_modify_skel; [rel_skel|reflexivity|reflexivity|]. intros t1 t2 HT R3 B3.
  apply HQ; [exact HT|congruence|congruence].
Qed.
(* skip_n_non_blank n: n buffered characters consumed *)
Lemma rwp_skip_n_non_blank n (Q : unit -> st1 -> unit -> st2 -> Prop) s1 s2 :
  SR s1 s2 -> n <= bl2 s2 ->
  (forall t1 t2, SR t1 t2 -> rem1 t1 = skipn n (rem1 s1) -> bl2 t2 = bl2 s2 - n -> Q tt t1 tt t2) ->
  rwp (skip_n_non_blank sops n) (skip_n_non_blank bops n) Q s1 s2.
Proof using cap_ge.
  intros HS HB HQ. unfold skip_n_non_blank. apply rwp_bind. apply (rwp_in_skip_n cap cap_ge); [exact HS|exact HB|].
  intros u1 u2 HU R1 _ B1. apply rwp_bind. apply rwp_adv_mark; [exact HU|]. intros v1 v2 HV R2 B2.
  apply rwp_modify_skel; [rel_skel|reflexivity|reflexivity|]. intros t1 t2 HT R3 B3.
  apply HQ; [exact HT|congruence|congruence].
Qed.
(* skip_nl: one buffered character consumed, the mark moved to the next line *)
Lemma rwp_skip_nl (Q : unit -> st1 -> unit -> st2 -> Prop) s1 s2 :
  SR s1 s2 -> 1 <= bl2 s2 ->
  (forall t1 t2, SR t1 t2 -> rem1 t1 = tl (rem1 s1) -> bl2 t2 = bl2 s2 - 1 -> Q tt t1 tt t2) ->
  rwp (skip_nl sops) (skip_nl bops) Q s1 s2.
Proof using cap_ge.
  intros HS HB HQ. unfold skip_nl. apply rwp_bind. apply (rwp_in_skip cap cap_ge); [exact HS|exact HB|].
  intros u1 u2 HU R1 _ B1. apply rwp_modify_skel; [rel_skel|reflexivity|reflexivity|]. intros t1 t2 HT R3 B3.
  apply HQ; [exact HT|congruence|congruence].
Qed.

(* skip_linebreak: CR LF / a break / nothing; two characters must be buffered *)
Lemma rwp_skip_linebreak (Q : unit -> st1 -> unit -> st2 -> Prop) s1 s2 :
  SR s1 s2 -> 2 <= bl2 s2 ->
  (forall t1 t2, SR t1 t2 -> rem1 t1 = skipn (lb_len s1) (rem1 s1) -> bl2 t2 = bl2 s2 - lb_len s1 -> Q tt t1 tt t2) ->
  rwp (skip_linebreak sops) (skip_linebreak bops) Q s1 s2.
Proof using cap_ge.
  intros HS HB HQ. unfold skip_linebreak. apply rwp_bind. apply rwp_next_2_are; [exact HS|exact HB|].
  unfold lb_len in HQ. unfold n2are. destruct ((rn1 s1 0 =? 13) && (rn1 s1 1 =? 10))%N.
  - apply rwp_bind. apply rwp_skip_blank; [exact HS|lia|]. intros u1 u2 HU R1 B1.
    apply rwp_skip_nl; [exact HU|lia|]. intros t1 t2 HT R2 B2. apply HQ; [exact HT| |lia].
    rewrite R2, R1. rewrite <- (tl_skipn 1). reflexivity.
  - apply rwp_bind. apply (rwp_peek cap cap_ge); [exact HS|lia|]. destruct (is_break (rn1 s1 0)).
    + apply rwp_skip_nl; [exact HS|lia|]. intros t1 t2 HT R1 B1. apply HQ; [exact HT|exact R1|exact B1].
    + apply rwp_ret. apply HQ; [exact HS|reflexivity|lia].
Qed.

(* skip_break: the debug assertion fails on both sides or on neither *)
Lemma rwp_skip_break (Q : unit -> st1 -> unit -> st2 -> Prop) s1 s2 :
  SR s1 s2 -> 2 <= bl2 s2 ->
  (forall t1 t2, SR t1 t2 -> is_break (rn1 s1 0) = true -> rem1 t1 = skipn (lb_len s1) (rem1 s1) ->
                 bl2 t2 = bl2 s2 - lb_len s1 -> Q tt t1 tt t2) ->
  rwp (skip_break sops) (skip_break bops) Q s1 s2.
Proof using cap_ge.
  intros HS HB HQ. unfold skip_break.
  apply rwp_bind. apply (rwp_peek cap cap_ge); [exact HS|lia|].
  apply rwp_bind. apply (rwp_peekn cap cap_ge); [exact HS|lia|].
  unfold lb_len in HQ. destruct (is_break (rn1 s1 0)) eqn:Ebr.
  2:{ apply rwp_bind. apply rwp_panic_r. }
  apply rwp_bind. apply rwp_ret.
  destruct ((rn1 s1 0 =? 13) && (rn1 s1 1 =? 10))%N.
  - apply rwp_bind. apply rwp_skip_blank; [exact HS|lia|]. intros u1 u2 HU R1 B1.
    apply rwp_skip_nl; [exact HU|lia|]. intros t1 t2 HT R2 B2. apply HQ; [exact HT|reflexivity| |lia].
    rewrite R2, R1. rewrite <- (tl_skipn 1). reflexivity.
  - apply rwp_bind. apply rwp_ret. apply rwp_skip_nl; [exact HS|lia|]. intros t1 t2 HT R1 B1.
    apply HQ; [exact HT|reflexivity|exact R1|exact B1].
Qed.

(* the bulk input loops (lockstep: same fuel on both sides) *)
Lemma skipn_tl {A} j (l : list A) : skipn j (tl l) = skipn (S j) l.
Proof. destruct l; [destruct j; reflexivity|reflexivity]. Qed.

(* in_skip_while F p: k characters satisfying p consumed; at the exit one character is buffered and fails p *)
Lemma rwp_in_skip_while F p (Q : N -> st1 -> N -> st2 -> Prop) s1 s2 :
  SR s1 s2 ->
  (forall k t1 t2, SR t1 t2 -> erase t1 = erase s1 -> 1 <= bl2 t2 -> p (rn1 t1 0) = false ->
     rem1 t1 = skipn (N.to_nat k) (rem1 s1) -> (forall i, i < N.to_nat k -> p (rn1 s1 i) = true) -> Q k t1 k t2) ->
  rwp (in_skip_while sops F p) (in_skip_while bops F p) Q s1 s2.
Proof using cap_ge.
  intros HS HQ. unfold in_skip_while.
  match goal with |- rwp (?L1 F 0%N) (?L2 F 0%N) _ _ _ =>
    assert (HL : forall f k u1 u2, SR u1 u2 -> erase u1 = erase s1 -> rem1 u1 = skipn (N.to_nat k) (rem1 s1) ->
                   (forall i, i < N.to_nat k -> p (rn1 s1 i) = true) -> rwp (L1 f k) (L2 f k) Q u1 u2) end.
  { induction f as [|f IHf]; intros k u1 u2 HU EU RU PU; [apply rwp_oof_l|]. lazy beta iota.
    apply rwp_bind. apply (rwp_look_ch cap cap_ge); [exact HU|]. intros v1 v2 HV RV EV BV _.
    destruct (p (rn1 v1 0)) eqn:Ep.
    - apply rwp_bind. apply (rwp_in_skip cap cap_ge); [exact HV|exact BV|]. intros w1 w2 HW RW EW BW.
      apply IHf; [exact HW|congruence| |].
      + rewrite RW, RV, RU, tl_skipn. f_equal. lia.
      + intros i Hi. destruct (Nat.eq_dec i (N.to_nat k)) as [->|Hne]; [|apply PU; lia].
        rewrite <- Ep. rewrite (rn1_eq v1 u1 0 RV). rewrite (rn1_skipn u1 s1 _ 0 RU). rewrite Nat.add_0_r. reflexivity.
    - apply rwp_ret. apply HQ; try assumption; congruence. }
  apply HL; [exact HS|reflexivity|reflexivity|]. intros i Hi. cbn in Hi. lia.
Qed.
Lemma rwp_in_skip_while_non_breakz F (Q : N -> st1 -> N -> st2 -> Prop) s1 s2 :
  SR s1 s2 ->
  (forall k t1 t2, SR t1 t2 -> erase t1 = erase s1 -> 1 <= bl2 t2 -> is_breakz (rn1 t1 0) = true ->
     rem1 t1 = skipn (N.to_nat k) (rem1 s1) -> (forall i, i < N.to_nat k -> is_breakz (rn1 s1 i) = false) -> Q k t1 k t2) ->
  rwp (in_skip_while_non_breakz sops F) (in_skip_while_non_breakz bops F) Q s1 s2.
Proof using cap_ge.
  intros HS HQ. unfold in_skip_while_non_breakz. apply rwp_in_skip_while; [exact HS|].
  intros k t1 t2 HT ET BT PT RT AT. apply HQ; try assumption.
  - apply negb_false_iff. exact PT.
  - intros i Hi. apply negb_true_iff. apply AT. exact Hi.
Qed.
Lemma rwp_in_skip_while_blank F (Q : N -> st1 -> N -> st2 -> Prop) s1 s2 :
  SR s1 s2 ->
  (forall k t1 t2, SR t1 t2 -> erase t1 = erase s1 -> 1 <= bl2 t2 -> is_blank (rn1 t1 0) = false ->
     rem1 t1 = skipn (N.to_nat k) (rem1 s1) -> (forall i, i < N.to_nat k -> is_blank (rn1 s1 i) = true) -> Q k t1 k t2) ->
  rwp (in_skip_while_blank sops F) (in_skip_while_blank bops F) Q s1 s2.
Proof using cap_ge. intros HS HQ. unfold in_skip_while_blank. apply rwp_in_skip_while; [exact HS|exact HQ]. Qed.

(* in_fetch_while_alpha F acc: same loop, the characters are also returned (the same list on both sides) *)
Lemma rwp_in_fetch_while_alpha F acc (Q : list chr * N -> st1 -> list chr * N -> st2 -> Prop) s1 s2 :
  SR s1 s2 ->
  (forall r t1 t2, SR t1 t2 -> erase t1 = erase s1 -> 1 <= bl2 t2 -> is_alpha (rn1 t1 0) = false ->
     rem1 t1 = skipn (N.to_nat (snd r)) (rem1 s1) ->
     (forall i, i < N.to_nat (snd r) -> is_alpha (rn1 s1 i) = true) -> Q r t1 r t2) ->
  rwp (in_fetch_while_alpha sops F acc) (in_fetch_while_alpha bops F acc) Q s1 s2.
Proof using cap_ge.
  intros HS HQ. unfold in_fetch_while_alpha.
  match goal with |- rwp (?L1 F acc 0%N) (?L2 F acc 0%N) _ _ _ =>
    assert (HL : forall f a k u1 u2, SR u1 u2 -> erase u1 = erase s1 -> rem1 u1 = skipn (N.to_nat k) (rem1 s1) ->
                   (forall i, i < N.to_nat k -> is_alpha (rn1 s1 i) = true) -> rwp (L1 f a k) (L2 f a k) Q u1 u2) end.
  { induction f as [|f IHf]; intros a k u1 u2 HU EU RU PU; [apply rwp_oof_l|]. lazy beta iota.
    apply rwp_bind. apply (rwp_look_ch cap cap_ge); [exact HU|]. intros v1 v2 HV RV EV BV _.
    destruct (is_alpha (rn1 v1 0)) eqn:Ep.
    - apply rwp_bind. apply (rwp_in_skip cap cap_ge); [exact HV|exact BV|]. intros w1 w2 HW RW EW BW.
      apply IHf; [exact HW|congruence| |].
      + rewrite RW, RV, RU, tl_skipn. f_equal. lia.
      + intros i Hi. destruct (Nat.eq_dec i (N.to_nat k)) as [->|Hne]; [|apply PU; lia].
        rewrite <- Ep. rewrite (rn1_eq v1 u1 0 RV). rewrite (rn1_skipn u1 s1 _ 0 RU). rewrite Nat.add_0_r. reflexivity.
    - apply rwp_ret. apply HQ; cbn [snd]; try assumption; congruence. }
  apply HL; [exact HS|reflexivity|reflexivity|]. intros i Hi. cbn in Hi. lia.
Qed.

(* in_skip_ws_to_eol (with its nested comment loop): j characters consumed, the count grew by j, one character is
   buffered at the exit *)
Lemma rwp_in_skip_ws_to_eol F stb tab ws n
  (Q : N * option (bool * bool) -> st1 -> N * option (bool * bool) -> st2 -> Prop) s1 s2 :
  SR s1 s2 ->
  (forall r j t1 t2, SR t1 t2 -> erase t1 = erase s1 -> 1 <= bl2 t2 ->
     fst r = (n + N.of_nat j)%N -> rem1 t1 = skipn j (rem1 s1) -> Q r t1 r t2) ->
  rwp (in_skip_ws_to_eol sops F stb tab ws n) (in_skip_ws_to_eol bops F stb tab ws n) Q s1 s2.
Proof using cap_ge.
  revert tab ws n Q s1 s2. induction F as [|F IHF]; intros tab ws n Q s1 s2 HS HQ; [apply rwp_oof_l|].
  cbn [in_skip_ws_to_eol].
  apply rwp_bind. apply (rwp_look_ch cap cap_ge); [exact HS|]. intros u1 u2 HU RU EU BU _.
  (* the callee after consuming [S j0] characters and counting [j0] of them so far plus one at the call *)
  assert (STEP : forall tab' ws' j0 v1 v2, SR v1 v2 -> rem1 v1 = skipn j0 (rem1 s1) -> erase v1 = erase s1 ->
            rwp (in_skip_ws_to_eol sops F stb tab' ws' (n + N.of_nat j0)%N)
                (in_skip_ws_to_eol bops F stb tab' ws' (n + N.of_nat j0)%N) Q v1 v2).
  { intros tab' ws' j0 v1 v2 HV RV EV. apply IHF; [exact HV|]. intros r j t1 t2 HT ET BT FR RT.
    apply (HQ r (j0 + j)); [exact HT|congruence|exact BT|rewrite FR; lia|]. rewrite RT, RV. apply skipn_add. }
  assert (ONE : forall v1, rem1 v1 = tl (rem1 u1) -> rem1 v1 = skipn 1 (rem1 s1)).
  { intros v1 RV. rewrite RV, RU. reflexivity. }
  destruct (rn1 u1 0 =? 32)%N.
  { apply rwp_bind. apply (rwp_in_skip cap cap_ge); [exact HU|exact BU|]. intros v1 v2 HV RV EV BV.
    apply (STEP tab true 1 v1 v2); [exact HV|apply ONE; exact RV|congruence]. }
  match goal with |- rwp (if ?b then _ else _) _ _ _ _ => destruct b end.
  { apply rwp_bind. apply (rwp_in_skip cap cap_ge); [exact HU|exact BU|]. intros v1 v2 HV RV EV BV.
    apply (STEP true ws 1 v1 v2); [exact HV|apply ONE; exact RV|congruence]. }
  assert (HQ0 : forall o, Q (n, o) u1 (n, o) u2).
  { intros o. apply (HQ (n, o) 0); [exact HU|exact EU|exact BU|cbn [fst]; lia|exact RU]. }
  destruct (rn1 u1 0 =? 35)%N; [|apply rwp_ret; apply HQ0].
  destruct (negb tab && negb ws); [apply rwp_ret; apply HQ0|].
  apply rwp_bind. apply (rwp_in_skip cap cap_ge); [exact HU|exact BU|]. intros v1 v2 HV RV EV BV.
  (* the comment loop: [j] comment characters consumed after the '#', which is counted at the exit *)
  match goal with |- rwp (?L1 F n) (?L2 F n) _ _ _ =>
    assert (HL : forall f j w1 w2, SR w1 w2 -> erase w1 = erase s1 -> rem1 w1 = skipn (S j) (rem1 s1) ->
                   rwp (L1 f (n + N.of_nat j)%N) (L2 f (n + N.of_nat j)%N) Q w1 w2) end.
  { induction f as [|f IHf]; intros j w1 w2 HW EW RW; [apply rwp_oof_l|]. lazy beta iota.
    apply rwp_bind. apply (rwp_look_ch cap cap_ge); [exact HW|]. intros x1 x2 HX RX EX BX _.
    destruct (is_breakz (rn1 x1 0)).
    - replace (n + N.of_nat j + 1)%N with (n + N.of_nat (S j))%N by lia.
      apply STEP; [exact HX|congruence|congruence].
    - apply rwp_bind. apply (rwp_in_skip cap cap_ge); [exact HX|exact BX|]. intros y1 y2 HY RY EY BY.
      replace (n + N.of_nat j + 1)%N with (n + N.of_nat (S j))%N by lia.
      apply IHf; [exact HY|congruence|]. rewrite RY, RX, RW. apply tl_skipn. }
  assert (EV0 : erase v1 = erase s1) by congruence.
  specialize (HL F 0 v1 v2 HV EV0 (ONE v1 RV)). change (N.of_nat 0) with 0%N in HL. rewrite N.add_0_r in HL. exact HL.
Qed.

(* the contracts *)
Theorem skip_linebreak_ok : rel_skip_linebreak cap strict N0.
Proof using cap_ge.
  unfold rel_skip_linebreak. intros s1 s2 HS HB. apply rwp_skip_linebreak; [exact HS|exact HB|].
  intros t1 t2 HT _ _. split; [reflexivity|]. split; [exact HT|lia].
Qed.

Theorem skip_ws_to_eol_ok : rel_skip_ws_to_eol cap strict N0.
Proof using cap_ge.
  unfold rel_skip_ws_to_eol. intros F stb s1 s2 HS. unfold skip_ws_to_eol.
  apply rwp_bind. apply rwp_in_skip_ws_to_eol; [exact HS|]. intros r j u1 u2 HU _ BU _ _.
  apply rwp_bind. apply rwp_adv_mark; [exact HU|]. intros v1 v2 HV _ BV.
  destruct (snd r) as [tw|].
  - apply rwp_ret_rpost; [exact HV|lia].
  - apply rwp_mark_fail. exact HV.
Qed.

Theorem skip_to_next_token_ok : rel_skip_to_next_token cap strict N0.
Proof using cap_ge.
  unfold rel_skip_to_next_token. induction F as [|F IHF]; intros s1 s2 HS; [apply rwp_oof_l|].
  cbn [skip_to_next_token].
  apply rwp_bind. apply (rwp_look_ch cap cap_ge); [exact HS|]. intros u1 u2 HU RU EU BU _.
  apply rwp_bind. apply rwp_get. cbv beta.
  apply rwp_bind. apply rwp_is_within_block; [exact HU|]. cbv beta.
  rel_if.
  { (* a tab in the indentation: skip_ws_to_eol, then a break must follow *)
    eapply rwp_bind_rpost; [apply skip_ws_to_eol_ok; exact HU|]. intros tw v1 v2 HV BV.
    apply rwp_bind. apply rwp_next_is; [exact HV|exact BV|]. destruct (is_breakz (rn1 v1 0)).
    - apply IHF. exact HV.
    - apply rwp_mark_fail. exact HV. }
  rel_if.
  { (* tab or space: the character just looked at is buffered *)
    apply rwp_bind. apply rwp_skip_blank; [exact HU|exact BU|]. intros v1 v2 HV _ _. apply IHF. exact HV. }
  rel_if.
  { (* a line break: look 2 buffers both characters of a CR LF *)
    apply rwp_bind. apply (rwp_look cap cap_ge); [exact HU|lia|]. intros v1 v2 HV RV EV BV _.
    eapply rwp_bind_rpost; [apply skip_linebreak_ok; [exact HV|exact BV]|]. intros [] w1 w2 HW _.
    apply rwp_bind. apply rwp_flow_level; [exact HW|]. cbv beta.
    apply rwp_bind. destruct (sc_flow_level w1 =? 0)%N.
    - apply rwp_allow_simple_key; [exact HW|]. intros x1 x2 HX _ _. apply IHF. exact HX.
    - apply rwp_ret. apply IHF. exact HW. }
  rel_if.
  { (* a comment *)
    apply rwp_bind. apply rwp_in_skip_while_non_breakz; [exact HU|]. intros k v1 v2 HV _ _ _ _ _.
    apply rwp_bind. apply rwp_adv_mark; [exact HV|]. intros w1 w2 HW _ _. apply IHF. exact HW. }
  apply rwp_ret_rpost; [exact HU|exact BU].
Qed.

Theorem skip_yaml_whitespace_ok : rel_skip_yaml_whitespace cap strict N0.
Proof using cap_ge.
  unfold rel_skip_yaml_whitespace. intros F s1 s2 HS. unfold skip_yaml_whitespace.
  match goal with |- rwp (?L1 F true) (?L2 F true) _ _ _ =>
    assert (HL : forall f need u1 u2, SR u1 u2 -> rwp (L1 f need) (L2 f need) (rpost 1) u1 u2) end.
  { clear s1 s2 HS. induction f as [|f IHf]; intros need s1 s2 HS; [apply rwp_oof_l|]. lazy beta iota.
    apply rwp_bind. apply (rwp_look_ch cap cap_ge); [exact HS|]. intros u1 u2 HU RU EU BU _.
    rel_if.
    { apply rwp_bind. apply rwp_skip_blank; [exact HU|exact BU|]. intros v1 v2 HV _ _. apply IHf. exact HV. }
    rel_if.
    { apply rwp_bind. apply (rwp_look cap cap_ge); [exact HU|lia|]. intros v1 v2 HV RV EV BV _.
      eapply rwp_bind_rpost; [apply skip_linebreak_ok; [exact HV|exact BV]|]. intros [] w1 w2 HW _.
      apply rwp_bind. apply rwp_flow_level; [exact HW|]. cbv beta.
      apply rwp_bind. destruct (sc_flow_level w1 =? 0)%N.
      - apply rwp_allow_simple_key; [exact HW|]. intros x1 x2 HX _ _. apply IHf. exact HX.
      - apply rwp_ret. apply IHf. exact HW. }
    rel_if.
    { apply rwp_bind. apply rwp_in_skip_while_non_breakz; [exact HU|]. intros k v1 v2 HV _ _ _ _ _.
      apply rwp_bind. apply rwp_adv_mark; [exact HV|]. intros w1 w2 HW _ _. apply IHf. exact HW. }
    destruct need.
    - apply rwp_mark_fail. exact HU.
    - apply rwp_ret_rpost; [exact HU|exact BU]. }
  apply HL. exact HS.
Qed.

End RelPrim.

Print Assumptions skip_linebreak_ok.
Print Assumptions skip_ws_to_eol_ok.
Print Assumptions skip_to_next_token_ok.
Print Assumptions skip_yaml_whitespace_ok.
