(* C05 — proofs about the scanner model's block-scalar code on the string back-end ([str_ops]) against
   Spec/BlockScalar.v.

   All of Part 3 and Part 4 is proved for the three line-break styles of YAML (LF, CR LF, CR): section variable [brk]
   with [break_style brk]; the texts are those of the specification with every line feed replaced ([wbrk] =
   [with_breaks]).

   Part 0  the monad, a view of scanner states ([mv]), one-step facts about the input primitives on [str_ops], breaks
   Part 1  (T1) [nls] / chomping arithmetic
   Part 2  (T2) [scan_block_scalar_content_line]
   Part 3  (T3) [skip_spaces_to], [skip_block_scalar_indent] (both the narrow and the wide-indent path),
                [skip_first_line_indent]
   Part 4  (T4) [scan_block_scalar], literal and folded style
   Part 5  the complete statement [C05_full], contexts, pipeline examples, refutation witness, former witnesses
   (Proofs/BlockScalarCase.v: the same theorems stated on the cases [bcase] / [case_ok] of the specification) *)
From Coq Require Import List NArith ZArith Bool Arith Lia.
Import ListNotations.
Require Import Parser SBase SPrim SDir SScalar BlockScalar ScanLoops ScalarKit.
Open Scope N_scope.
Open Scope mon_scope.

(* Part 0: monad, state view, primitive steps *)
Notation MS := (@M strin).

Lemma bind_ok_eq {A B} (m : MS A) (f : A -> MS B) (s : sc strin) a s' r :
  m s = Ok (a, s') -> f a s' = r -> bind m f s = r.
Proof. intros H1 H2. rewrite (bind_Ok _ _ _ _ _ H1). exact H2. Qed.

(* the scanner state [s] with input position, look-ahead counter, mark and leading-white-space flag replaced *)
Definition mv (s : sc strin) (cs : list chr) (lk : nat) (m : marker) (w : bool) : sc strin :=
  set_lws w (upd s {| si_chars := cs; si_look := lk |} m (sc_tokens s)).

Lemma mv_mv s cs lk m w cs' lk' m' w' : mv (mv s cs lk m w) cs' lk' m' w' = mv s cs' lk' m' w'.
Proof. reflexivity. Qed.

Lemma mv_self s : mv s (si_chars (sc_in s)) (si_look (sc_in s)) (sc_mark s) (sc_lws s) = s.
Proof. destruct s as [[cs lk] m]; reflexivity. Qed.

(* first character of the remaining input (NUL at the end), and runs of spaces *)
Definition hd0 (cs : list chr) : chr := nth 0 cs 0.
Definition sps (k : nat) : list chr := repeat 32 k.
Lemma hd0_cons c r : hd0 (c :: r) = c.
Proof. reflexivity. Qed.
Lemma hd0_sps_app k rest : hd0 (sps k ++ rest) = match k with O => hd0 rest | S _ => 32 end.
Proof. destruct k; reflexivity. Qed.

Section Steps.
Variables (s : sc strin) (cs : list chr) (lk : nat) (m : marker) (w : bool).
Notation st := (mv s cs lk m w).

Lemma look_mv n : look str_ops n st = Ok (tt, mv s cs (Nat.max lk n) m w).
Proof. reflexivity. Qed.
Lemma peekn_mv n : peekn str_ops n st = Ok (nth n cs 0, st).
Proof. reflexivity. Qed.
Lemma peek_mv : peek str_ops st = Ok (hd0 cs, st).
Proof. reflexivity. Qed.
Lemma look_ch_mv : look_ch str_ops st = Ok (hd0 cs, mv s cs (Nat.max lk 1) m w).
Proof. reflexivity. Qed.
Lemma next_is_mv p : next_is str_ops p st = Ok (p (hd0 cs), st).
Proof. reflexivity. Qed.
Lemma buf_is_empty_mv : buf_is_empty str_ops st = Ok (Nat.eqb lk 0, st).
Proof. reflexivity. Qed.
Lemma col_mv : col st = Ok (m_col m, st).
Proof. reflexivity. Qed.
Lemma mark_mv : mark st = Ok (m, st).
Proof. reflexivity. Qed.
Lemma adv_mark_mv n : adv_mark n st = Ok (tt, mv s cs lk (adv n m) w).
Proof. reflexivity. Qed.
Lemma skip_blank_mv : skip_blank str_ops st = Ok (tt, mv s (tl cs) lk (adv 1 m) w).
Proof. reflexivity. Qed.
Lemma skip_non_blank_mv : skip_non_blank str_ops st = Ok (tt, mv s (tl cs) lk (adv 1 m) false).
Proof. reflexivity. Qed.
Lemma skip_nl_mv : skip_nl str_ops st = Ok (tt, mv s (tl cs) lk (nlm m) true).
Proof. reflexivity. Qed.
End Steps.

Lemma raw_read_some s c r lk m w : is_breakz c = false ->
  raw_read str_ops (mv s (c :: r) lk m w) = Ok (Some c, mv s r lk m w).
Proof. intros H. unfold raw_read. cbn. rewrite H. reflexivity. Qed.

Lemma raw_read_none s cs lk m w : is_breakz (hd0 cs) = true ->
  raw_read str_ops (mv s cs lk m w) = Ok (None, mv s cs lk m w).
Proof. intros H. unfold raw_read. destruct cs as [|c r]; cbn; [reflexivity|]. cbn in H. rewrite H. reflexivity. Qed.

Ltac mstep tac := (eapply bind_ok_eq; [tac | cbv beta match]).

(* Line breaks.  Everything below is proved for the three break styles of YAML: LF, CR LF, CR *)
Definition break_style (brk : list chr) : Prop := brk = [10] \/ brk = [13; 10] \/ brk = [13].
(* in a text whose breaks are lone CRs a CR is a line break by itself *)
Definition crnl (brk : list chr) : bool := match brk with [13] => true | _ => false end.

(* the mark after reading a text *)
Fixpoint mark_after (brk : list chr) (m : marker) (t : list chr) : marker :=
  match t with
  | [] => m
  | c :: r => mark_after brk (if (c =? 10) || ((c =? 13) && crnl brk) then nlm m else adv 1 m) r
  end.

Lemma mark_after_app brk m a b : mark_after brk m (a ++ b) = mark_after brk (mark_after brk m a) b.
Proof. revert m; induction a as [|c a IH]; intros m; cbn [app mark_after]; [reflexivity|apply IH]. Qed.

Lemma mark_after_nolf brk t : Forall (fun c => is_break c = false) t -> forall m, mark_after brk m t = adv (N.of_nat (length t)) m.
Proof.
  induction 1 as [|c r Hc Hr IH]; intros m; cbn [mark_after length].
  - symmetry; apply adv_0.
  - unfold is_break in Hc. apply orb_false_iff in Hc. destruct Hc as [H10 H13]. rewrite H10, H13. cbn [orb andb].
    rewrite IH, adv_adv. f_equal. lia.
Qed.

Lemma mark_after_spaces brk k m : mark_after brk m (sps k) = adv (N.of_nat k) m.
Proof.
  unfold sps. rewrite mark_after_nolf; [rewrite repeat_length; reflexivity|].
  apply Forall_forall. intros x Hx. apply repeat_spec in Hx. subst. reflexivity.
Qed.

(* what may follow a break: after a lone CR no LF (it would make a CR LF) *)
Definition follow (brk r : list chr) : Prop := crnl brk = true -> hd0 r <> 10.

Section BreakFacts.
Variable brk : list chr.
Hypothesis Hbrk : break_style brk.

Lemma crnl_cr : crnl brk = true -> brk = [13].
Proof. destruct Hbrk as [->|[->| ->]]; [discriminate|discriminate|reflexivity]. Qed.

Lemma skip_break_brk s r lk m w : follow brk r ->
  skip_break str_ops (mv s (brk ++ r) lk m w) = Ok (tt, mv s r lk (mark_after brk m brk) true).
Proof.
  intros Hf. destruct Hbrk as [->|[->| ->]]; [reflexivity|reflexivity|].
  unfold skip_break. cbn [app]. mstep ltac:(apply peek_mv). mstep ltac:(apply peekn_mv).
  change (nth 1 (13 :: r) 0) with (hd0 r).
  destruct (N.eqb_spec (hd0 r) 10) as [E|_]; [exfalso; apply (Hf eq_refl); exact E|]. reflexivity.
Qed.

Lemma col_brk m : m_col (mark_after brk m brk) = 0.
Proof. destruct Hbrk as [->|[->| ->]]; reflexivity. Qed.
Lemma line_brk m : m_line (mark_after brk m brk) = m_line m + 1.
Proof. destruct Hbrk as [->|[->| ->]]; reflexivity. Qed.

(* the first character of a break *)
Lemma hd0_brk r : hd0 (brk ++ r) = 10 \/ hd0 (brk ++ r) = 13.
Proof. destruct Hbrk as [->|[->| ->]]; [left|right|right]; reflexivity. Qed.
Lemma brk_is_break r : is_break (hd0 (brk ++ r)) = true.
Proof. destruct (hd0_brk r) as [-> | ->]; reflexivity. Qed.
Lemma brk_is_breakz r : is_breakz (hd0 (brk ++ r)) = true.
Proof. destruct (hd0_brk r) as [-> | ->]; reflexivity. Qed.
Lemma brk_not_z r : is_z (hd0 (brk ++ r)) = false.
Proof. destruct (hd0_brk r) as [-> | ->]; reflexivity. Qed.
Lemma brk_not_space r : hd0 (brk ++ r) <> 32.
Proof. destruct (hd0_brk r) as [-> | ->]; discriminate. Qed.
Lemma brk_not_tab r : hd0 (brk ++ r) <> 9.
Proof. destruct (hd0_brk r) as [-> | ->]; discriminate. Qed.
Lemma brk_ne : brk <> [].
Proof. destruct Hbrk as [->|[->| ->]]; discriminate. Qed.
Lemma brk_split : exists b t, brk = b :: t /\ (b = 10 \/ b = 13).
Proof. destruct Hbrk as [->|[->| ->]]; eexists; eexists; (split; [reflexivity|]); [left|right|right]; reflexivity. Qed.

Lemma follow_nb r : is_break (hd0 r) = false -> follow brk r.
Proof. intros H _ E. rewrite E in H. discriminate H. Qed.
Lemma follow_nil : follow brk [].
Proof. intros _ E. discriminate E. Qed.
Lemma follow_brk r : follow brk (brk ++ r).
Proof. intros H. rewrite (crnl_cr H). discriminate. Qed.
Lemma follow_sps k r : follow brk r -> follow brk (sps k ++ r).
Proof. intros H Hc. destruct k as [|k]; [exact (H Hc)|discriminate]. Qed.
End BreakFacts.

(* Part 1 (T1): nls and chomping arithmetic *)
Lemma nls_0 acc : nls 0 acc = acc.
Proof. reflexivity. Qed.

Lemma nls_add a b acc : nls (a + b) acc = nls a (nls b acc).
Proof. apply N.iter_add. Qed.

Lemma rev_nls n acc : rev (nls n acc) = rev acc ++ lfs (N.to_nat n).
Proof. rewrite nls_repeat, rev_app_distr, rev_repeat. reflexivity. Qed.

Lemma nls_of_nat k acc : rev (nls (N.of_nat k) acc) = rev acc ++ lfs k.
Proof. rewrite rev_nls, Nat2N.id. reflexivity. Qed.

(* the three tails of the model against the specification *)
Definition to_model (c : chomp) : chomping := match c with CStrip => Strip | CClip => Clip | CKeep => Keep end.

Lemma chomp_tail c (acc : list chr) (tb : nat) :
  rev (match to_model c with Keep => nls (N.of_nat tb) | _ => fun a => a end
         (match to_model c with Strip => acc | _ => nls 1 acc end))
  = rev acc ++ match c with CStrip => [] | CClip => [LF] | CKeep => lfs (S tb) end.
Proof.
  destruct c; cbn [to_model].
  - rewrite app_nil_r. reflexivity.
  - rewrite rev_nls. reflexivity.
  - rewrite nls_of_nat, rev_nls, <- app_assoc. reflexivity.
Qed.

(* Part 2 (T2): one content line *)
Definition nobreak (t : list chr) : Prop := Forall (fun c => is_breakz c = false) t.

Lemma nobreak_nolf t : nobreak t -> Forall (fun c => is_break c = false) t.
Proof. apply Forall_impl. intros c H. exact (proj1 (orb_false_elim _ _ H)). Qed.

(* the buffered-peek loop: with a non-empty look-ahead it reads the whole line *)
Lemma bs_go_full : forall (txt rest : list chr) f acc s lk m w,
  nobreak txt -> is_breakz (hd0 rest) = true -> lk <> O -> (length txt < f)%nat ->
  bs_go str_ops f acc (mv s (txt ++ rest) lk m w)
  = Ok (rev txt ++ acc, mv s rest lk (adv (N.of_nat (length txt)) m) w).
Proof.
  induction txt as [|c txt IH]; intros rest f acc s lk m w Hnb Hr Hlk Hf.
  - destruct f as [|f]; [cbn in Hf; lia|]. cbn [bs_go app length rev].
    (eapply bind_ok_eq; [apply buf_is_empty_mv|cbv beta iota]). destruct (Nat.eqb_spec lk 0); [contradiction|].
    (eapply bind_ok_eq; [apply peek_mv|cbv beta iota]). rewrite Hr. rewrite adv_0. reflexivity.
  - destruct f as [|f]; [cbn in Hf; lia|]. inversion Hnb as [|? ? Hc Hnb']; subst.
    cbn [bs_go app].
    (eapply bind_ok_eq; [apply buf_is_empty_mv|cbv beta iota]). destruct (Nat.eqb_spec lk 0); [contradiction|].
    (eapply bind_ok_eq; [apply peek_mv|cbv beta iota]). rewrite hd0_cons, Hc.
    (eapply bind_ok_eq; [apply skip_blank_mv|cbv beta iota]). cbn [tl].
    rewrite IH; [|auto|auto|auto|cbn [length] in Hf; lia].
    rewrite adv_adv. cbn [rev length]. rewrite <- app_assoc. cbn [app].
    do 4 f_equal. lia.
Qed.

(* with an empty look-ahead it reads nothing *)
Lemma bs_go_empty f acc s cs m w : bs_go str_ops (S f) acc (mv s cs O m w) = Ok (acc, mv s cs O m w).
Proof. reflexivity. Qed.

(* the raw fast path *)
Lemma bs_raw_full : forall (txt rest : list chr) f acc n s lk m w,
  nobreak txt -> is_breakz (hd0 rest) = true -> (length txt < f)%nat ->
  bs_raw str_ops f acc n (mv s (txt ++ rest) lk m w)
  = Ok (rev txt ++ acc, mv s rest lk (adv (n + N.of_nat (length txt)) m) w).
Proof.
  induction txt as [|c txt IH]; intros rest f acc n s lk m w Hnb Hr Hf.
  - destruct f as [|f]; [cbn in Hf; lia|]. cbn [bs_raw app length rev].
    (eapply bind_ok_eq; [apply raw_read_none; exact Hr|cbv beta iota]).
    (eapply bind_ok_eq; [apply adv_mark_mv|cbv beta iota]). rewrite N.add_0_r. reflexivity.
  - destruct f as [|f]; [cbn in Hf; lia|]. inversion Hnb as [|? ? Hc Hnb']; subst.
    cbn [bs_raw app].
    (eapply bind_ok_eq; [apply raw_read_some; exact Hc|cbv beta iota]).
    rewrite IH; [|auto|auto|cbn [length] in Hf; lia].
    cbn [rev length]. rewrite <- app_assoc. cbn [app]. do 4 f_equal. lia.
Qed.

Theorem content_line_spec : forall brk (txt rest : list chr) F acc s lk m w,
  nobreak txt -> is_breakz (hd0 rest) = true -> (length txt < F)%nat ->
  scan_block_scalar_content_line str_ops F acc (mv s (txt ++ rest) lk m w)
  = Ok (rev txt ++ acc, mv s rest lk (mark_after brk m txt) w).
Proof.
  intros brk txt rest F acc s lk m w Hnb Hr Hf. rewrite content_line_eq.
  rewrite (mark_after_nolf brk _ (nobreak_nolf _ Hnb)).
  destruct lk as [|lk].
  - (* empty look-ahead: raw fast path *)
    destruct F as [|F]; [lia|].
    (eapply bind_ok_eq; [apply bs_go_empty|cbv beta iota]).
    (eapply bind_ok_eq; [apply buf_is_empty_mv|cbv beta iota]). cbn [Nat.eqb].
    rewrite bs_raw_full by auto. rewrite N.add_0_l. reflexivity.
  - (eapply bind_ok_eq; [apply bs_go_full; auto|cbv beta iota]).
    (eapply bind_ok_eq; [apply buf_is_empty_mv|cbv beta iota]). reflexivity.
Qed.

Ltac hd0c := match goal with |- context [hd0 (?c :: ?r)] => change (hd0 (c :: r)) with c end.

(* Part 3 (T3): indentation *)
Section Brk.
Variable brk : list chr.
Hypothesis Hbrk : break_style brk.

Lemma buf_test_mv (cb : bool) s cs lk m w : (cb = true -> lk <> O) ->
  (if cb then buf_is_empty str_ops else ret false) (mv s cs lk m w) = Ok (false, mv s cs lk m w).
Proof.
  intros H. destruct cb; [|reflexivity]. rewrite buf_is_empty_mv. destruct (Nat.eqb_spec lk 0); [exfalso; apply H; auto|reflexivity].
Qed.

(* [skip_spaces_to indent]: on k spaces followed by something else it consumes min k (indent - column) of them *)
Lemma skip_spaces_to_spec : forall k (rest : list chr) f indent cb s lk m w j,
  hd0 rest <> 32 -> (k < f)%nat -> (cb = true -> lk <> O) ->
  j = Nat.min k (N.to_nat (indent - m_col m)) ->
  skip_spaces_to str_ops f indent cb (mv s (sps k ++ rest) lk m w)
  = Ok (tt, mv s (sps (k - j) ++ rest) lk (adv (N.of_nat j) m) w).
Proof.
  induction k as [|k IH]; intros rest f indent cb s lk m w j Hr Hf Hcb Hj.
  - destruct f as [|f]; [lia|]. cbn [skip_spaces_to]. cbn [Nat.min] in Hj. subst j. cbn [Nat.sub N.of_nat]. change (sps 0 ++ rest) with rest.
    rewrite adv_0.
    mstep ltac:(apply buf_test_mv; exact Hcb). mstep ltac:(apply col_mv). cbn [orb].
    destruct (m_col m <? indent); cbn [negb]; [|reflexivity].
    mstep ltac:(apply peek_mv). destruct (N.eqb_spec (hd0 rest) 32); [contradiction|reflexivity].
  - destruct f as [|f]; [lia|]. cbn [skip_spaces_to].
    mstep ltac:(apply buf_test_mv; exact Hcb). mstep ltac:(apply col_mv). cbn [orb].
    destruct (N.ltb_spec (m_col m) indent) as [Hlt|Hge]; cbn [negb].
    + change (sps (S k) ++ rest) with (32 :: sps k ++ rest).
      mstep ltac:(apply peek_mv). hd0c. change (32 =? 32) with true. cbv iota.
      mstep ltac:(apply skip_blank_mv). cbn [tl].
      rewrite (IH rest f indent cb s lk (adv 1 m) w (Nat.min k (N.to_nat (indent - m_col (adv 1 m))))); auto; [|lia].
      rewrite adv_adv. cbn [adv m_col] in *.
      assert (Hj' : j = S (Nat.min k (N.to_nat (indent - (m_col m + 1))))) by lia.
      rewrite Hj'. cbn [Nat.sub]. do 4 f_equal. lia.
    + assert (Hj0 : j = O) by lia. subst j. rewrite Hj0. cbn [N.of_nat]. rewrite adv_0, Nat.sub_0_r. reflexivity.
Qed.

Lemma bs_spp_spec : forall k (rest : list chr) F indent s lk m w j,
  hd0 rest <> 32 -> (k < F)%nat -> m_col m <= indent ->
  j = Nat.min k (N.to_nat (indent - m_col m)) ->
  exists lk', (lk <= lk')%nat /\ lk' <> O /\
  bs_spp str_ops F indent (mv s (sps k ++ rest) lk m w)
  = Ok (tt, mv s (sps (k - j) ++ rest) lk' (adv (N.of_nat j) m) w).
Proof.
  intros k rest F indent s lk m w j Hr Hf Hcol Hj. unfold bs_spp.
  change (bufmaxlen str_ops) with 128%nat.
  destruct (indent <? N.of_nat (128 - 2)).
  - exists (Nat.max lk 128). split; [lia|]. split; [lia|].
    mstep ltac:(apply look_mv).
    apply skip_spaces_to_spec; auto. discriminate.
  - exists (Nat.max (Nat.max lk 128) 2). split; [lia|]. split; [lia|].
    destruct F as [|F]; [lia|].
    assert (Hw : bs_wide str_ops (S F) indent (S F) (mv s (sps k ++ rest) lk m w)
                 = Ok (tt, mv s (sps (k - j) ++ rest) (Nat.max lk 128) (adv (N.of_nat j) m) w)).
    { cbn [bs_wide]. change (bufmaxlen str_ops) with 128%nat.
      mstep ltac:(apply look_mv).
      mstep ltac:(apply (skip_spaces_to_spec k rest (S F) indent true s (Nat.max lk 128) m w j); auto; lia).
      mstep ltac:(apply col_mv). mstep ltac:(apply buf_is_empty_mv).
      destruct (Nat.eqb_spec (Nat.max lk 128) 0) as [E|_]; [lia|]. cbv iota.
      mstep ltac:(apply peek_mv). cbn [negb andb adv m_col].
      destruct (Nat.le_gt_cases (N.to_nat (indent - m_col m)) k) as [Hle|Hgt].
      - assert (E : m_col m + N.of_nat j = indent) by lia. rewrite E, N.eqb_refl. reflexivity.
      - assert (Ej : j = k) by lia. rewrite Ej, Nat.sub_diag. change (sps 0 ++ rest) with rest.
        destruct (N.eqb_spec (hd0 rest) 32); [contradiction|]. cbn [negb]. rewrite orb_true_r. reflexivity. }
    mstep ltac:(exact Hw). apply look_mv.
Qed.

(* blank lines: k_i spaces and a line break each *)
Definition blank_lines (ks : list nat) : list chr := flat_map (fun k => sps k ++ brk) ks.

Lemma col_nlm m : m_col (nlm m) = 0.
Proof. reflexivity. Qed.

Lemma mark_after_blank_line k m : mark_after brk m (sps k ++ brk) = mark_after brk (adv (N.of_nat k) m) brk.
Proof. rewrite mark_after_app, mark_after_spaces. reflexivity. Qed.

Lemma follow_blank_lines ks X : follow brk X -> follow brk (blank_lines ks ++ X).
Proof.
  intros H. destruct ks as [|k ks]; [exact H|]. cbn [blank_lines flat_map]. rewrite <- !app_assoc.
  apply follow_sps. apply (follow_brk brk Hbrk).
Qed.

(* (T3) skip_block_scalar_indent: blank lines of at most [indent] spaces are counted, then at most [indent] spaces
   of the next line are consumed.  The next line is a content line (more than [indent] spaces, or a character
   that is neither a space nor a break after at most [indent] spaces) or the less indented line after the scalar. *)
Theorem skip_block_scalar_indent_spec : forall ks k (rest : list chr) F fuel indent breaks s lk m,
  m_col m = 0 ->
  Forall (fun k => N.of_nat k <= indent) ks ->
  hd0 rest <> 32 ->
  (indent < N.of_nat k \/ is_break (hd0 rest) = false) ->
  (length ks < fuel)%nat ->
  Forall (fun k => (k < F)%nat) (k :: ks) ->
  exists lk', (lk <= lk')%nat /\ lk' <> O /\
  skip_block_scalar_indent str_ops F fuel indent breaks (mv s (blank_lines ks ++ sps k ++ rest) lk m true)
  = Ok (breaks + N.of_nat (length ks),
        mv s (sps (k - Nat.min k (N.to_nat indent)) ++ rest) lk'
           (mark_after brk m (blank_lines ks ++ sps (Nat.min k (N.to_nat indent)))) true).
Proof.
  induction ks as [|k0 ks IH]; intros k rest F fuel indent breaks s lk m Hcol Hks Hr Hlast Hfuel HF.
  - destruct fuel as [|fuel]; [cbn in Hfuel; lia|]. rewrite sbsi_eq.
    change (Nat.ltb (bufmaxlen str_ops) 2) with false. cbv iota.
    inversion HF as [|? ? HkF _]; subst.
    destruct (bs_spp_spec k rest F indent s lk m true (Nat.min k (N.to_nat indent)) Hr HkF) as [lk' [Hle [Hne Hsp]]];
      [rewrite Hcol; lia|rewrite Hcol, N.sub_0_r; reflexivity|].
    exists lk'. split; [exact Hle|]. split; [exact Hne|].
    cbn [blank_lines flat_map app length N.of_nat]. rewrite N.add_0_r.
    mstep ltac:(reflexivity). mstep ltac:(exact Hsp). mstep ltac:(apply next_is_mv).
    rewrite mark_after_spaces.
    assert (Hb : is_break (hd0 (sps (k - Nat.min k (N.to_nat indent)) ++ rest)) = false).
    { rewrite hd0_sps_app. destruct (k - Nat.min k (N.to_nat indent))%nat eqn:E; [|reflexivity].
      destruct Hlast as [Hlt|Hnb]; [lia|exact Hnb]. }
    rewrite Hb. reflexivity.
  - destruct fuel as [|fuel]; [cbn in Hfuel; lia|]. rewrite sbsi_eq.
    change (Nat.ltb (bufmaxlen str_ops) 2) with false. cbv iota.
    inversion Hks as [|? ? Hk0 Hks']; subst.
    inversion HF as [|? ? HkF HF']; subst. inversion HF' as [|? ? Hk0F HksF]; subst.
    cbn [blank_lines flat_map]. fold (blank_lines ks). rewrite <- !app_assoc.
    set (X := blank_lines ks ++ sps k ++ rest).
    assert (Hr0 : hd0 (brk ++ X) <> 32) by (apply (brk_not_space brk Hbrk)).
    destruct (bs_spp_spec k0 (brk ++ X) F indent s lk m true k0 Hr0 Hk0F)
      as [lk1 [Hle1 [Hne1 Hsp]]]; [rewrite Hcol; lia|rewrite Hcol; lia|].
    rewrite Nat.sub_diag in Hsp. change (sps 0 ++ brk ++ X) with (brk ++ X) in Hsp.
    destruct (IH k rest F fuel indent (breaks + 1) s lk1 (mark_after brk (adv (N.of_nat k0) m) brk)) as [lk' [Hle [Hne Hrec]]]; auto.
    { apply (col_brk brk Hbrk). }
    { cbn [length] in Hfuel. lia. }
    exists lk'. split; [lia|]. split; [exact Hne|].
    assert (Hfol : follow brk X).
    { subst X. apply follow_blank_lines. destruct (Nat.eq_dec k 0) as [->|Hk].
      - destruct Hlast as [Hlt|Hnb]; [lia|]. apply (follow_nb brk). exact Hnb.
      - intros _. destruct k; [congruence|discriminate]. }
    mstep ltac:(reflexivity). mstep ltac:(exact Hsp). mstep ltac:(apply next_is_mv).
    rewrite (brk_is_break brk Hbrk). cbv iota.
    mstep ltac:(apply (skip_break_brk brk Hbrk); exact Hfol).
    subst X. rewrite Hrec. cbn [length]. rewrite (mark_after_app brk m (sps k0)), mark_after_spaces.
    rewrite (mark_after_app brk _ brk).
    do 2 f_equal. lia.
Qed.

(* skip_first_line_indent (auto-detected indentation) *)
Lemma bs_sfl_spec : forall k (rest : list chr) f s lk m w,
  hd0 rest <> 32 -> (k < f)%nat ->
  bs_sfl str_ops f (mv s (sps k ++ rest) lk m w) = Ok (tt, mv s rest (Nat.max lk 1) (adv (N.of_nat k) m) w).
Proof.
  induction k as [|k IH]; intros rest f s lk m w Hr Hf; (destruct f as [|f]; [lia|]); cbn [bs_sfl].
  - change (sps 0 ++ rest) with rest. mstep ltac:(apply look_ch_mv).
    destruct (N.eqb_spec (hd0 rest) 32); [contradiction|]. cbn [N.of_nat]. rewrite adv_0. reflexivity.
  - change (sps (S k) ++ rest) with (32 :: sps k ++ rest). mstep ltac:(apply look_ch_mv). hd0c.
    change (32 =? 32) with true. cbv iota. mstep ltac:(apply skip_blank_mv). cbn [tl].
    rewrite IH by (auto; lia). rewrite adv_adv.
    replace (Nat.max (Nat.max lk 1) 1) with (Nat.max lk 1) by lia.
    do 4 f_equal. lia.
Qed.

Definition maxl (ks : list nat) (k : nat) : nat := fold_right Nat.max k ks.

Lemma col_after_blank_lines : forall ks j m, m_col m = 0 ->
  m_col (mark_after brk m (blank_lines ks ++ sps j)) = N.of_nat j.
Proof.
  induction ks as [|k ks IH]; intros j m Hm.
  - cbn [blank_lines flat_map app]. rewrite mark_after_spaces. cbn [adv m_col]. lia.
  - cbn [blank_lines flat_map]. fold (blank_lines ks). rewrite <- app_assoc, mark_after_app, mark_after_blank_line.
    apply IH. apply (col_brk brk Hbrk).
Qed.

Theorem skip_first_line_indent_spec : forall ks k (rest : list chr) F fuel maxi breaks s lk m,
  m_col m = 0 ->
  hd0 rest <> 32 -> is_break (hd0 rest) = false ->
  (length ks < fuel)%nat -> Forall (fun k => (k < F)%nat) (k :: ks) ->
  exists lk', (lk <= lk')%nat /\ lk' <> O /\
  skip_first_line_indent str_ops F fuel maxi breaks (mv s (blank_lines ks ++ sps k ++ rest) lk m true)
  = Ok ((N.max maxi (N.of_nat (maxl ks k)), breaks + N.of_nat (length ks)),
        mv s rest lk' (mark_after brk m (blank_lines ks ++ sps k)) true).
Proof.
  induction ks as [|k0 ks IH]; intros k rest F fuel maxi breaks s lk m Hcol Hr Hnb Hfuel HF.
  - destruct fuel as [|fuel]; [cbn in Hfuel; lia|]. rewrite sfli_eq.
    inversion HF as [|? ? HkF _]; subst.
    exists (Nat.max lk 1). split; [lia|]. split; [lia|].
    cbn [blank_lines flat_map app length N.of_nat maxl fold_right]. rewrite N.add_0_r.
    mstep ltac:(apply bs_sfl_spec; auto). mstep ltac:(apply col_mv). mstep ltac:(apply next_is_mv).
    rewrite Hnb. rewrite mark_after_spaces. cbn [adv m_col]. rewrite Hcol, N.add_0_l. reflexivity.
  - destruct fuel as [|fuel]; [cbn in Hfuel; lia|]. rewrite sfli_eq.
    inversion HF as [|? ? HkF HF']; subst. inversion HF' as [|? ? Hk0F HksF]; subst.
    cbn [blank_lines flat_map]. fold (blank_lines ks). rewrite <- !app_assoc.
    set (X := blank_lines ks ++ sps k ++ rest).
    destruct (IH k rest F fuel (N.max maxi (N.of_nat k0)) (breaks + 1) s (Nat.max (Nat.max lk 1) 2)
                 (mark_after brk (adv (N.of_nat k0) m) brk))
      as [lk' [Hle [Hne Hrec]]]; auto.
    { apply (col_brk brk Hbrk). }
    { cbn [length] in Hfuel. lia. }
    exists lk'. split; [lia|]. split; [exact Hne|].
    assert (Hfol : follow brk X).
    { subst X. apply follow_blank_lines. apply follow_sps. apply (follow_nb brk). exact Hnb. }
    mstep ltac:(apply bs_sfl_spec; [apply (brk_not_space brk Hbrk)|exact Hk0F]).
    mstep ltac:(apply col_mv). mstep ltac:(apply next_is_mv). rewrite (brk_is_break brk Hbrk). cbv iota.
    mstep ltac:(apply look_mv). mstep ltac:(apply (skip_break_brk brk Hbrk); exact Hfol).
    cbn [adv m_col]. rewrite Hcol, N.add_0_l. subst X. rewrite Hrec.
    cbn [length maxl fold_right]. fold (maxl ks k).
    rewrite (mark_after_app brk m (sps k0)), mark_after_spaces.
    rewrite (mark_after_app brk _ brk).
    do 3 f_equal; lia.
Qed.

(* Part 4 (T4): scan_block_scalar, both styles *)
(* the content loop of scan_block_scalar, named *)
Section Loop.
Variables (F : nat) (literal : bool) (indent : N).
Fixpoint bs_loop (f : nat) (acc : list chr) (lb tb : N) (leading_blank : bool) : MS (list chr * N * N) :=
  match f with
  | O => oof
  | S f =>
    k <- col ;; z <- next_is str_ops is_z ;;
    if negb (k =? indent) || z then ret (acc, lb, tb) else
    de <- (if indent =? 0 then look str_ops 4 ;;; next_is_document_indicator str_ops else ret false) ;;
    if de then ret (acc, lb, tb) else
    trailing_blank <- next_is str_ops is_blank ;;
    let acc :=
      if negb literal && negb (lb =? 0) && negb leading_blank && negb trailing_blank then
        (if tb =? 0 then 32 :: acc else nls tb acc)
      else nls tb (nls lb acc) in
    acc <- scan_block_scalar_content_line str_ops F acc ;;
    look str_ops 2 ;;;
    z <- next_is str_ops is_z ;;
    if z then ret (acc, 0, 0) else
    skip_break str_ops ;;;
    tb <- skip_block_scalar_indent str_ops F F indent 0 ;;
    bs_loop f acc 1 tb trailing_blank
  end.
End Loop.

(* a content line preceded by blank lines: (spaces of the blank lines, extra indentation, text) *)
Definition chunk := (list nat * nat * list chr)%type.
Definition chunk_ok (F n : nat) (c : chunk) : Prop :=
  let '(ks, e, s) := c in
  Forall (fun k => (k <= n)%nat) ks /\ nobreak s /\ hd0 s <> 32 /\ (e <> O \/ s <> []) /\
  (* fuel *) Forall (fun k => (k < F)%nat) ks /\ (length ks < F)%nat /\ (n + e + length s < F)%nat.
Definition chunk_text_nolf (n : nat) (c : chunk) : list chr :=
  let '(ks, e, s) := c in blank_lines ks ++ sps (n + e) ++ s.
Definition chunk_lines (c : chunk) : list bline :=
  let '(ks, e, s) := c in map Blank ks ++ [Text e s].

(* what one round prepends to the accumulator before the line itself (the fold decision of scan_block_scalar) *)
Definition fold_sep (literal : bool) (acc : list chr) (lb tb : N) (leading_blank trailing_blank : bool) : list chr :=
  if negb literal && negb (lb =? 0) && negb leading_blank && negb trailing_blank then
    (if tb =? 0 then 32 :: acc else nls tb acc)
  else nls tb (nls lb acc).

(* what the loop has accumulated after the chunks (reversed); [lb] = 0 before the first content line, 1 after *)
Fixpoint acc_chunks (literal : bool) (acc : list chr) (lb : N) (lbk : bool) (cs : list chunk) : list chr :=
  match cs with
  | [] => acc
  | (ks, e, s) :: r =>
      acc_chunks literal (rev (sps e ++ s) ++ fold_sep literal acc lb (N.of_nat (length ks)) lbk (is_blank (hd0 (sps e ++ s))))
                 1 (is_blank (hd0 (sps e ++ s))) r
  end.

Lemma nobreak_sps_app e s : nobreak s -> nobreak (sps e ++ s).
Proof.
  intros H. apply Forall_app. split; [|exact H].
  apply Forall_forall. intros x Hx. apply repeat_spec in Hx. subst. reflexivity.
Qed.

Lemma hd0_app_ne (a b : list chr) : a <> [] -> hd0 (a ++ b) = hd0 a.
Proof. destruct a; [congruence|reflexivity]. Qed.

Lemma nobreak_hd0 (t : list chr) : nobreak t -> t <> [] -> is_breakz (hd0 t) = false.
Proof. intros H Hne. destruct t as [|c t]; [congruence|]. inversion H; subst. assumption. Qed.

(* the document-marker test of the loop (only made when the content indentation is 0): `...` or `---` followed by a
   blank, a break or the end of the input *)
Definition doc_ind_b (cs : list chr) : bool :=
  is_blank_or_breakz (nth 3 cs 0) &&
  (((nth 0 cs 0 =? 46) && (nth 1 cs 0 =? 46) && (nth 2 cs 0 =? 46)) ||
   ((nth 0 cs 0 =? 45) && (nth 1 cs 0 =? 45) && (nth 2 cs 0 =? 45))).

Lemma next_is_document_indicator_mv s cs lk m w : (4 <= lk)%nat ->
  next_is_document_indicator str_ops (mv s cs lk m w) = Ok (doc_ind_b cs, mv s cs lk m w).
Proof. exact (next_is_document_indicator_str (mv s cs lk m w)). Qed.

(* a content line at column 0 that is not a document marker does not pass the document-marker test *)
Lemma marker_doc_ind (txt X : list chr) : nobreak txt -> marker_line txt = false -> is_breakz (hd0 X) = true ->
  doc_ind_b (txt ++ X) = false.
Proof.
  intros Hnb Hm HX. unfold doc_ind_b.
  assert (HX' : (nth 0 X 0 =? 46) = false /\ (nth 0 X 0 =? 45) = false).
  { fold (hd0 X). destruct (N.eqb_spec (hd0 X) 46) as [E|_]; [rewrite E in HX; discriminate|].
    destruct (N.eqb_spec (hd0 X) 45) as [E|_]; [rewrite E in HX; discriminate|]. split; reflexivity. }
  destruct HX' as [H46 H45].
  destruct txt as [|a [|b [|c [|d r]]]]; cbn [app nth].
  - rewrite H46, H45. repeat (rewrite ?andb_false_r; cbn [andb orb]). reflexivity.
  - rewrite H46, H45. repeat (rewrite ?andb_false_r; cbn [andb orb]). reflexivity.
  - rewrite H46, H45. repeat (rewrite ?andb_false_r; cbn [andb orb]). reflexivity.
  - cbn [marker_line] in Hm. rewrite andb_true_r in Hm. rewrite orb_comm in Hm. rewrite Hm. apply andb_false_r.
  - cbn [marker_line] in Hm. inversion Hnb as [|? ? _ H1]; subst. inversion H1 as [|? ? _ H2]; subst.
    inversion H2 as [|? ? _ H3]; subst. inversion H3 as [|? ? Hd _]; subst.
    rewrite orb_comm in Hm.
    destruct (((a =? 46) && (b =? 46) && (c =? 46)) || ((a =? 45) && (b =? 45) && (c =? 45))); [|apply andb_false_r].
    cbn [andb] in Hm. rewrite andb_true_r.
    unfold is_blank_or_breakz. rewrite Hd, orb_false_r.
    unfold is_white in Hm. unfold is_blank. exact Hm.
Qed.

(* look-ahead counter after the document-marker test of a round (made only when the content indentation is 0), and
   after the round *)
Definition dlk (n lk : nat) : nat := match n with O => Nat.max lk 4 | S _ => lk end.
Definition rlk (n lk : nat) : nat := Nat.max (dlk n lk) 2.
Lemma rlk_ne n lk : rlk n lk <> O.
Proof. unfold rlk. lia. Qed.

Lemma loop_doc_test n s cs lk m w :
  (if N.of_nat n =? 0 then look str_ops 4 ;;; next_is_document_indicator str_ops else ret false) (mv s cs lk m w)
  = Ok (match n with O => doc_ind_b cs | S _ => false end, mv s cs (dlk n lk) m w).
Proof.
  destruct n as [|n]; [|reflexivity]. cbn [N.of_nat N.eqb dlk].
  mstep ltac:(apply look_mv). apply next_is_document_indicator_mv. lia.
Qed.

(* the rest of a round behind its content line: the end of the input ends the scalar; behind a line break the blank
   lines and the indentation of the next line are consumed, and the loop goes on *)
Definition bs_line_end (F : nat) (literal : bool) (n f : nat) (acc : list chr) (tbk : bool) : MS (list chr * N * N) :=
  z <- next_is str_ops is_z ;;
  if z then ret (acc, 0, 0) else
  skip_break str_ops ;;;
  tb <- skip_block_scalar_indent str_ops F F (N.of_nat n) 0 ;;
  bs_loop F literal (N.of_nat n) f acc 1 tb tbk.

(* one round of the loop at the start of a content line [txt]; [X] is a line break and more, or the end of the input *)
Lemma bs_loop_line : forall (txt X : list chr) F literal n f acc lb tb lbk s lk m w,
  nobreak txt -> txt <> [] -> (n = O -> doc_ind_b (txt ++ X) = false) -> m_col m = N.of_nat n -> (length txt < F)%nat ->
  is_breakz (hd0 X) = true ->
  bs_loop F literal (N.of_nat n) (S f) acc lb tb lbk (mv s (txt ++ X) lk m w)
  = bs_line_end F literal n f (rev txt ++ fold_sep literal acc lb tb lbk (is_blank (hd0 txt))) (is_blank (hd0 txt))
      (mv s X (rlk n lk) (mark_after brk m txt) w).
Proof.
  intros txt X F literal n f acc lb tb lbk s lk m w Hnb Hne Hn Hcol HF HX.
  cbn [bs_loop].
  mstep ltac:(apply col_mv). mstep ltac:(apply next_is_mv).
  rewrite Hcol, N.eqb_refl. rewrite (hd0_app_ne txt) by exact Hne.
  rewrite (proj2 (breakz_parts _ (nobreak_hd0 _ Hnb Hne))). cbn [negb orb].
  mstep ltac:(apply loop_doc_test).
  replace (match n with O => doc_ind_b (txt ++ X) | S _ => false end) with false
    by (destruct n; [symmetry; exact (Hn eq_refl)|reflexivity]).
  mstep ltac:(apply next_is_mv). rewrite (hd0_app_ne txt) by exact Hne.
  fold (fold_sep literal acc lb tb lbk (is_blank (hd0 txt))).
  mstep ltac:(apply (content_line_spec brk); [exact Hnb|exact HX|exact HF]).
  mstep ltac:(apply look_mv). reflexivity.
Qed.

Lemma bs_line_end_brk (R : list chr) F literal n f acc tbk s lk m w : follow brk R ->
  bs_line_end F literal n f acc tbk (mv s (brk ++ R) lk m w)
  = (tb <- skip_block_scalar_indent str_ops F F (N.of_nat n) 0 ;; bs_loop F literal (N.of_nat n) f acc 1 tb tbk)
      (mv s R lk (mark_after brk m brk) true).
Proof.
  intros Hfol. unfold bs_line_end. mstep ltac:(apply next_is_mv). rewrite (brk_not_z brk Hbrk). cbv match.
  mstep ltac:(apply (skip_break_brk brk Hbrk); exact Hfol). reflexivity.
Qed.

Lemma sps_add a b : sps (a + b) = sps a ++ sps b.
Proof. unfold sps. apply repeat_app. Qed.

Lemma chunk_content_facts F n ks e (txt : list chr) : chunk_ok F n (ks, e, txt) ->
  sps e ++ txt <> [] /\ nobreak (sps e ++ txt) /\ (length (sps e ++ txt) < F)%nat.
Proof.
  intros [_ [Hnb [_ [Hne [_ [_ Hlen]]]]]]. split; [|split].
  - destruct Hne as [He|Hs']; [destruct e; [congruence|discriminate]|destruct e; [exact Hs'|discriminate]].
  - apply nobreak_sps_app; exact Hnb.
  - rewrite app_length; unfold sps; rewrite repeat_length; lia.
Qed.

Lemma chunk_nolf_ne F n ks e (txt : list chr) : chunk_ok F n (ks, e, txt) -> chunk_text_nolf n (ks, e, txt) <> [].
Proof.
  intros Hc. destruct (chunk_content_facts _ _ _ _ _ Hc) as [Hne _]. cbn [chunk_text_nolf].
  destruct ks as [|k ks]; [|cbn [blank_lines flat_map]; destruct Hbrk as [->|[->| ->]]; destruct k; discriminate].
  cbn [blank_lines flat_map app]. rewrite sps_add, <- app_assoc. destruct (sps n); [exact Hne|discriminate].
Qed.

Lemma tab_pos n ck : n <> O -> hd0 (chunk_text_nolf n ck) <> 9.
Proof.
  intros Hn. destruct ck as [[ks e] txt]. cbn [chunk_text_nolf].
  destruct ks as [|[|k0] ks]; [destruct n; [congruence|]| |]; try (intro H; cbv in H; discriminate H).
  cbn [blank_lines flat_map]. change (sps 0 ++ brk) with brk. rewrite <- !app_assoc. apply (brk_not_tab brk Hbrk).
Qed.

Lemma follow_txt (txt X : list chr) : nobreak txt -> txt <> [] -> follow brk (txt ++ X).
Proof.
  intros Hnb Hne _ E. rewrite hd0_app_ne in E by exact Hne. pose proof (nobreak_hd0 _ Hnb Hne) as H. rewrite E in H. discriminate H.
Qed.

Lemma follow_line n e (txt X : list chr) : nobreak txt -> (e <> O \/ txt <> []) -> follow brk (sps (n + e) ++ txt ++ X).
Proof.
  intros Hnb Hne. destruct (n + e)%nat as [|k] eqn:E; [|intros _; discriminate].
  change (sps 0 ++ txt ++ X) with (txt ++ X). apply follow_txt; [exact Hnb|]. destruct Hne as [He|Hs]; [lia|exact Hs].
Qed.

Lemma follow_chunk F n ck X : chunk_ok F n ck -> follow brk (chunk_text_nolf n ck ++ X).
Proof.
  destruct ck as [[ks e] txt]. intros [_ [Hnb [_ [Hne _]]]]. cbn [chunk_text_nolf]. rewrite <- !app_assoc.
  apply follow_blank_lines. apply follow_line; assumption.
Qed.

(* a content line at column 0 (content indentation 0, no extra indentation) must not look like a document marker *)
Definition chunk_col0 (n : nat) (c : chunk) : Prop :=
  let '(ks, e, txt) := c in n = O -> e = O -> marker_line txt = false.

Lemma doc_end_content n ks e (txt X : list chr) : nobreak txt -> chunk_col0 n (ks, e, txt) -> is_breakz (hd0 X) = true ->
  n = O -> doc_ind_b ((sps e ++ txt) ++ X) = false.
Proof.
  intros Hnb Hc HX Hn. destruct e as [|e].
  - change (sps 0 ++ txt) with txt. apply marker_doc_ind; auto.
  - unfold doc_ind_b. change (sps (S e)) with (32 :: sps e). cbn [app nth].
    change (32 =? 46) with false. change (32 =? 45) with false. cbn [andb orb]. apply andb_false_r.
Qed.

Lemma doc_ind_not_z (r : list chr) : doc_ind_b r = true -> is_z (hd0 r) = false.
Proof.
  unfold doc_ind_b, hd0. intros H. apply andb_true_iff in H. destruct H as [_ H].
  apply orb_true_iff in H. destruct H as [H|H];
    (apply andb_true_iff in H; destruct H as [H _]; apply andb_true_iff in H; destruct H as [H _];
     apply N.eqb_eq in H; rewrite H; reflexivity).
Qed.

Lemma col_after_text (txt : list chr) m : nobreak txt -> m_col (mark_after brk m txt) = m_col m + N.of_nat (length txt).
Proof. intros H. rewrite (mark_after_nolf brk _ (nobreak_nolf _ H)). reflexivity. Qed.

Lemma sbsi_chunk ks e (txt X : list chr) F n s lk m :
  chunk_ok F n (ks, e, txt) -> is_breakz (hd0 X) = true -> m_col m = 0 ->
  exists lk', lk' <> O /\
  skip_block_scalar_indent str_ops F F (N.of_nat n) 0 (mv s (chunk_text_nolf n (ks, e, txt) ++ X) lk m true)
  = Ok (N.of_nat (length ks), mv s ((sps e ++ txt) ++ X) lk' (mark_after brk m (blank_lines ks ++ sps n)) true).
Proof.
  intros [Hks [Hnb [Hhd [Hne [HksF [HksL Hlen]]]]]] HX Hcol.
  destruct (skip_block_scalar_indent_spec ks (n + e) (txt ++ X) F F (N.of_nat n) 0 s lk m Hcol) as [lk' [_ [Hne' Hs]]].
  - apply Forall_impl with (2 := Hks). intros k Hk. lia.
  - destruct txt as [|c t]; [|exact Hhd]. intro E. cbn [app] in E. rewrite E in HX. discriminate HX.
  - destruct Hne as [He|Hs]; [left; lia|right].
    rewrite hd0_app_ne by exact Hs. exact (proj1 (breakz_parts _ (nobreak_hd0 _ Hnb Hs))).
  - exact HksL.
  - constructor; [lia|exact HksF].
  - exists lk'. split; [exact Hne'|].
    cbn [chunk_text_nolf]. rewrite <- !app_assoc, Hs, N.add_0_l, Nat2N.id.
    replace (Nat.min (n + e) n) with n by lia. replace (n + e - n)%nat with e by lia. reflexivity.
Qed.

(* the content lines after the first, each with the line break and the blank lines in front of it *)
Definition sep_chunk (n : nat) (c : chunk) : list chr := brk ++ chunk_text_nolf n c.

Lemma sep_chunks_breakz n chunks (X : list chr) :
  is_breakz (hd0 X) = true -> is_breakz (hd0 (flat_map (sep_chunk n) chunks ++ X)) = true.
Proof.
  intros H. destruct chunks as [|c chunks]; [exact H|]. cbn [flat_map]. unfold sep_chunk. rewrite <- !app_assoc.
  apply (brk_is_breakz brk Hbrk).
Qed.

(* the loop from the first character of a content line through all the content lines that follow; it is left behind
   the last of them, in front of [X]: a line break and more, or the end of the input *)
Lemma bs_loop_lines : forall chunks ks e (txt X : list chr) F literal n f acc lb lbk s lk m w,
  Forall (chunk_ok F n) ((ks, e, txt) :: chunks) -> Forall (chunk_col0 n) ((ks, e, txt) :: chunks) ->
  is_breakz (hd0 X) = true -> m_col m = N.of_nat n ->
  exists lk' mend w' tbk, lk' <> O /\ N.max (N.of_nat n) 1 <= m_col mend /\
  bs_loop F literal (N.of_nat n) (S (length chunks + f)) acc lb (N.of_nat (length ks)) lbk
    (mv s ((sps e ++ txt) ++ flat_map (sep_chunk n) chunks ++ X) lk m w)
  = bs_line_end F literal n f (acc_chunks literal acc lb lbk ((ks, e, txt) :: chunks)) tbk (mv s X lk' mend w').
Proof.
  induction chunks as [|[[ks2 e2] txt2] chunks IH]; intros ks e txt X F literal n f acc lb lbk s lk m w Hch Hc0 HX Hcol;
    pose proof (Forall_inv Hch) as Hc; destruct (chunk_content_facts _ _ _ _ _ Hc) as [Hne [Hnbt Hlen]].
  - exists (rlk n lk), (mark_after brk m (sps e ++ txt)), w, (is_blank (hd0 (sps e ++ txt))).
    split; [apply rlk_ne|]. split.
    { rewrite col_after_text by exact Hnbt. destruct (sps e ++ txt); [congruence|cbn [length]; lia]. }
    cbn [flat_map app length Nat.add acc_chunks].
    apply bs_loop_line; auto.
    apply (doc_end_content n ks e txt X); [exact (proj1 (proj2 Hc))|exact (Forall_inv Hc0)|exact HX].
  - pose proof (Forall_inv_tail Hch) as Hch'. pose proof (Forall_inv_tail Hc0) as Hc0'.
    set (REST := flat_map (sep_chunk n) chunks ++ X).
    assert (HR : is_breakz (hd0 REST) = true) by (apply sep_chunks_breakz; exact HX).
    set (A := rev (sps e ++ txt) ++ fold_sep literal acc lb (N.of_nat (length ks)) lbk (is_blank (hd0 (sps e ++ txt)))).
    set (m1 := mark_after brk (mark_after brk m (sps e ++ txt)) brk).
    destruct (sbsi_chunk ks2 e2 txt2 REST F n s (rlk n lk) m1 (Forall_inv Hch') HR (col_brk brk Hbrk _)) as [lk1 [_ Hs]].
    destruct (IH ks2 e2 txt2 X F literal n f A 1 (is_blank (hd0 (sps e ++ txt))) s lk1
                 (mark_after brk m1 (blank_lines ks2 ++ sps n)) true Hch' Hc0' HX)
      as [lk' [mend [w' [tbk [H1 [H2 Hrec]]]]]]; [apply col_after_blank_lines; apply (col_brk brk Hbrk)|].
    exists lk', mend, w', tbk. split; [exact H1|]. split; [exact H2|].
    replace ((sps e ++ txt) ++ flat_map (sep_chunk n) ((ks2, e2, txt2) :: chunks) ++ X)
      with ((sps e ++ txt) ++ brk ++ chunk_text_nolf n (ks2, e2, txt2) ++ REST)
      by (cbn [flat_map]; unfold sep_chunk at 1; rewrite <- !app_assoc; reflexivity).
    cbn [length Nat.add].
    rewrite bs_loop_line; auto.
    + rewrite bs_line_end_brk by (apply (follow_chunk F); exact (Forall_inv Hch')).
      mstep ltac:(exact Hs). exact Hrec.
    + apply (doc_end_content n ks e txt); [exact (proj1 (proj2 Hc))|exact (Forall_inv Hc0)|apply (brk_is_breakz brk Hbrk)].
    + apply (brk_is_breakz brk Hbrk).
Qed.

Lemma bs_loop_exit F literal indent f acc lb tb lbk s (r' : list chr) lk m w :
  m_col m <> indent \/ r' = [] \/ (indent = 0 /\ doc_ind_b r' = true) ->
  exists lk', (lk <= lk')%nat /\
  bs_loop F literal indent (S f) acc lb tb lbk (mv s r' lk m w) = Ok ((acc, lb, tb), mv s r' lk' m w).
Proof.
  intros H. cbn [bs_loop].
  destruct (N.eq_dec (m_col m) indent) as [E|E].
  - destruct H as [H|[->|[-> Hde]]]; [contradiction| |].
    + exists lk. split; [lia|]. mstep ltac:(apply col_mv). mstep ltac:(apply next_is_mv).
      change (is_z (hd0 [])) with true. rewrite orb_true_r. reflexivity.
    + exists (Nat.max lk 4). split; [lia|]. mstep ltac:(apply col_mv). mstep ltac:(apply next_is_mv).
      rewrite E, (doc_ind_not_z _ Hde). cbn [N.eqb negb orb].
      mstep ltac:(apply (loop_doc_test O)). rewrite Hde. reflexivity.
  - exists lk. split; [lia|]. mstep ltac:(apply col_mv). mstep ltac:(apply next_is_mv).
    rewrite (proj2 (N.eqb_neq _ _) E). reflexivity.
Qed.

(* how a scalar with content indentation n ends after a line break: a less indented line; the end of the input,
   possibly inside a last line of at most n spaces; or (n = 0) a document marker `...` / `---` *)
Definition ends_after (n j : nat) (r' : list chr) : Prop :=
  (j < n)%nat \/ (r' = [] /\ (j <= n)%nat) \/ (n = O /\ j = O /\ doc_ind_b r' = true).

Lemma bs_line_end_exit : forall (tks : list nat) (j : nat) (r' : list chr) F literal n f acc tbk s lk m w,
  Forall (fun k => (k <= n)%nat) tks -> Forall (fun k => (k < F)%nat) tks -> (length tks < F)%nat ->
  ends_after n j r' -> (j < F)%nat -> hd0 r' <> 32 -> is_break (hd0 r') = false ->
  exists lk', lk' <> O /\
  bs_line_end F literal n (S f) acc tbk (mv s (brk ++ blank_lines tks ++ sps j ++ r') lk m w)
  = Ok ((acc, 1, N.of_nat (length tks)),
        mv s r' lk' (mark_after brk (mark_after brk m brk) (blank_lines tks ++ sps j)) true).
Proof.
  intros tks j r' F literal n f acc tbk s lk m w Htks HtksF HtksL Hj HjF Hr Hrb.
  assert (Hjn : (j <= n)%nat) by (destruct Hj as [H|[[_ H]|[-> [-> _]]]]; lia).
  set (m1 := mark_after brk m brk).
  destruct (skip_block_scalar_indent_spec tks j r' F F (N.of_nat n) 0 s lk m1 (col_brk brk Hbrk m)) as [lk1 [_ [Hne1 Hs]]]; auto.
  { apply Forall_impl with (2 := Htks). intros k Hk. lia. }
  rewrite Nat2N.id in Hs. replace (Nat.min j n) with j in Hs by lia. rewrite Nat.sub_diag, N.add_0_l in Hs.
  change (sps 0 ++ r') with r' in Hs.
  destruct (bs_loop_exit F literal (N.of_nat n) f acc 1 (N.of_nat (length tks)) tbk s r' lk1
              (mark_after brk m1 (blank_lines tks ++ sps j)) true) as [lk' [Hle Hx]].
  { rewrite col_after_blank_lines by apply (col_brk brk Hbrk).
    destruct Hj as [H|[[H _]|[-> [-> H]]]]; [left; lia|right; left; exact H|right; right; split; [reflexivity|exact H]]. }
  exists lk'. split; [lia|].
  rewrite bs_line_end_brk by (apply follow_blank_lines, follow_sps, (follow_nb brk); exact Hrb).
  mstep ltac:(exact Hs). exact Hx.
Qed.

(* the specification side: what the chunks denote *)
Lemma body_blanks literal prev k ks r :
  body literal prev k (map Blank ks ++ r) = body literal prev (k + length ks) r.
Proof.
  revert k; induction ks as [|k0 ks IH]; intros k; cbn [map app body length].
  - rewrite Nat.add_0_r. reflexivity.
  - rewrite IH. f_equal. lia.
Qed.

Lemma lfs_add a b : lfs a ++ lfs b = lfs (a + b).
Proof. unfold lfs. symmetry. apply repeat_app. Qed.

Lemma is_blank_spaced e (s : list chr) : is_blank (hd0 (sps e ++ s)) = spaced e s.
Proof. destruct e as [|e]; [destruct s as [|c s]|]; reflexivity. Qed.

(* the fold decision of the scanner against [sep] of the specification *)
Lemma fold_sep_sep literal acc lb k lbk tblank prev :
  (lb = 0 /\ prev = None) \/ (lb = 1 /\ prev = Some lbk) ->
  rev (fold_sep literal acc lb (N.of_nat k) lbk tblank) = rev acc ++ sep literal prev k tblank.
Proof.
  intros [[-> ->]|[-> ->]]; unfold fold_sep, sep.
  - change (negb (0 =? 0)) with false. rewrite andb_false_r. cbn [andb]. rewrite nls_of_nat. reflexivity.
  - change (negb (1 =? 0)) with true. rewrite andb_true_r.
    destruct (negb literal && negb lbk && negb tblank).
    + destruct k as [|k].
      * reflexivity.
      * destruct (N.eqb_spec (N.of_nat (S k)) 0) as [E|_]; [lia|]. rewrite nls_of_nat. reflexivity.
    + rewrite nls_of_nat, rev_nls, <- app_assoc. reflexivity.
Qed.

Lemma acc_chunks_body : forall (chunks : list chunk) tks literal acc lb lbk prev,
  (lb = 0 /\ prev = None) \/ (lb = 1 /\ prev = Some lbk) ->
  rev (acc_chunks literal acc lb lbk chunks) = rev acc ++ body literal prev 0 (flat_map chunk_lines chunks ++ map Blank tks).
Proof.
  induction chunks as [|[[ks e] s] chunks IH]; intros tks literal acc lb lbk prev Hlb.
  - cbn [acc_chunks flat_map app]. rewrite <- (app_nil_r (map Blank tks)), body_blanks. cbn [body]. rewrite app_nil_r. reflexivity.
  - cbn [acc_chunks flat_map chunk_lines]. rewrite <- !app_assoc. rewrite body_blanks. cbn [app body Nat.add].
    rewrite (IH tks literal _ 1 _ (Some (spaced e s))) by (right; split; [reflexivity|rewrite is_blank_spaced; reflexivity]).
    rewrite rev_app_distr, rev_involutive, (fold_sep_sep literal acc lb (length ks) lbk _ prev Hlb), is_blank_spaced.
    unfold line_text. change (spaces e) with (sps e). rewrite <- !app_assoc. reflexivity.
Qed.

Lemma leading_blanks_map ks r : leading_blanks (map Blank ks ++ r) = (length ks + leading_blanks r)%nat.
Proof. induction ks as [|k ks IH]; [reflexivity|]. cbn [map app leading_blanks length]. rewrite IH. reflexivity. Qed.

Lemma chunks_last : forall (chunks : list chunk), chunks <> [] ->
  exists Y e s, flat_map chunk_lines chunks = Y ++ [Text e s].
Proof.
  intros chunks Hne. destruct (exists_last Hne) as [front [[[ks e] s] ->]].
  rewrite flat_map_app. cbn [flat_map chunk_lines]. rewrite app_nil_r.
  exists (flat_map chunk_lines front ++ map Blank ks), e, s. rewrite app_assoc. reflexivity.
Qed.

Lemma chunks_trailing chunks tks : chunks <> [] ->
  trailing_blanks (flat_map chunk_lines chunks ++ map Blank tks) = length tks /\
  has_text (flat_map chunk_lines chunks ++ map Blank tks) = true.
Proof.
  intros Hne. destruct (chunks_last chunks Hne) as [Y [e [s E]]]. rewrite E. split.
  - unfold trailing_blanks. rewrite rev_app_distr, <- map_rev, leading_blanks_map, rev_app_distr.
    cbn [rev app leading_blanks]. rewrite rev_length. lia.
  - unfold has_text. rewrite !existsb_app. cbn [existsb is_text]. rewrite !orb_true_r. reflexivity.
Qed.

Theorem chunks_value literal c chunks tks acc : chunks <> [] ->
  rev (match to_model c with Keep => nls (N.of_nat (length tks)) | _ => fun a => a end
         (match to_model c with
          | Strip => acc_chunks literal acc 0 false chunks
          | _ => nls 1 (acc_chunks literal acc 0 false chunks) end))
  = rev acc ++ block_value literal c (flat_map chunk_lines chunks ++ map Blank tks).
Proof.
  intros Hne. rewrite chomp_tail. unfold block_value.
  destruct (chunks_trailing chunks tks Hne) as [-> ->].
  rewrite (acc_chunks_body chunks tks literal acc 0 false None) by (left; split; reflexivity).
  rewrite <- app_assoc. reflexivity.
Qed.

(* the rendering of the lines, chunk by chunk *)
Lemma flat_map_shift {A} (g : A -> list N) ls fin :
  flat_map (fun l => LF :: g l) ls ++ LF :: fin = LF :: flat_map (fun l => g l ++ [LF]) ls ++ fin.
Proof.
  induction ls as [|l ls IH]; [reflexivity|]. cbn [flat_map app]. rewrite <- !app_assoc. cbn [app]. rewrite IH. reflexivity.
Qed.

(* the text with every line feed replaced by the break ([with_breaks] of the specification) *)
Definition wbrk (t : list chr) : list chr := flat_map (fun c => if c =? 10 then brk else [c]) t.

Lemma wbrk_app a b : wbrk (a ++ b) = wbrk a ++ wbrk b.
Proof. apply flat_map_app. Qed.
Lemma wbrk_nolf t : Forall (fun c => c <> 10) t -> wbrk t = t.
Proof.
  induction 1 as [|c r Hc Hr IH]; [reflexivity|]. unfold wbrk in *. cbn [flat_map].
  destruct (N.eqb_spec c 10); [contradiction|]. rewrite IH. reflexivity.
Qed.
Lemma wbrk_lf t : wbrk (10 :: t) = brk ++ wbrk t.
Proof. reflexivity. Qed.
Lemma nolf_of_nb t : Forall (fun c => is_break c = false) t -> Forall (fun c => c <> 10) t.
Proof. apply Forall_impl. intros c H ->. discriminate H. Qed.
Lemma wbrk_sps k : wbrk (sps k) = sps k.
Proof. apply wbrk_nolf. apply Forall_forall. intros x Hx. apply repeat_spec in Hx. subst. discriminate. Qed.
Lemma wbrk_nobreak t : nobreak t -> wbrk t = t.
Proof. intros H. apply wbrk_nolf, nolf_of_nb, nobreak_nolf. exact H. Qed.

Lemma render_blanks n ks : wbrk (flat_map (fun l => render_line n l ++ [LF]) (map Blank ks)) = blank_lines ks.
Proof.
  induction ks as [|k ks IH]; [reflexivity|]. cbn [map flat_map blank_lines render_line].
  rewrite !wbrk_app, IH. change (spaces k) with (sps k). rewrite wbrk_sps. change (wbrk [LF]) with (brk ++ []).
  rewrite app_nil_r. reflexivity.
Qed.

Definition chunk_nb (c : chunk) : Prop := let '(ks, e, s) := c in nobreak s.
Lemma chunk_ok_nb F n c : chunk_ok F n c -> chunk_nb c.
Proof. destruct c as [[ks e] s]. intros [_ [H _]]. exact H. Qed.

(* every line preceded by its line break, as [render_block] writes them *)
Lemma render_chunks_sep n chunks : Forall chunk_nb chunks ->
  wbrk (flat_map (fun l => LF :: render_line n l) (flat_map chunk_lines chunks)) = flat_map (sep_chunk n) chunks.
Proof.
  induction 1 as [|[[ks e] s] chunks Hc _ IH]; [reflexivity|].
  cbn [flat_map chunk_lines]. rewrite !flat_map_app, wbrk_app, IH. f_equal.
  cbn [flat_map render_line]. rewrite app_nil_r, flat_map_shift, wbrk_lf, !wbrk_app, render_blanks.
  change (spaces (n + e)) with (sps (n + e)). rewrite wbrk_sps, (wbrk_nobreak s Hc). reflexivity.
Qed.

(* the header *)
Ltac evalb :=
  repeat match goal with
         | |- context [N.eqb (Npos ?a) (Npos ?b)] =>
             let v := eval vm_compute in (N.eqb (Npos a) (Npos b)) in change (N.eqb (Npos a) (Npos b)) with v
         | |- context [is_digit (Npos ?a)] =>
             let v := eval vm_compute in (is_digit (Npos a)) in change (is_digit (Npos a)) with v
         end;
  cbn [orb andb negb].

(* the indicator part of scan_block_scalar, named ([c] = the character after '|' / '>') *)
Definition bs_hd (c : chr) (start : marker) : MS (chomping * N) :=
  let chomp_of c := if c =? 43 then Keep else Strip in
  if (c =? 43) || (c =? 45) then
    skip_non_blank str_ops ;;; look str_ops 1 ;;; d <- peek str_ops ;;
    if is_digit d then
      (if d =? 48 then fail 80 start else skip_non_blank str_ops ;;; ret (chomp_of c, d - 48))
    else ret (chomp_of c, 0)
  else if is_digit c then
    (if c =? 48 then fail 80 start else
     skip_non_blank str_ops ;;; look str_ops 1 ;;; d <- peek str_ops ;;
     if (d =? 43) || (d =? 45) then skip_non_blank str_ops ;;; ret (chomp_of d, c - 48)
     else ret (Clip, c - 48))
  else ret (Clip, 0).

Definition hdr_chars (c : chomp) (explicit : option nat) (digit_first : bool) : list chr :=
  let ch := match c with CStrip => [45] | CClip => [] | CKeep => [43] end in
  let d := match explicit with Some m => [48 + N.of_nat m] | None => [] end in
  if digit_first then d ++ ch else ch ++ d.

Lemma header_hdr_chars literal c explicit digit_first :
  header literal c explicit digit_first = (if literal then 124 else 62) :: hdr_chars c explicit digit_first.
Proof. reflexivity. Qed.

Definition inc_of (explicit : option nat) : N := match explicit with Some d => N.of_nat d | None => 0 end.

Lemma digit_facts d : (1 <= d <= 9)%nat ->
  let D := 48 + N.of_nat d in
  is_digit D = true /\ (D =? 48) = false /\ (D =? 43) = false /\ (D =? 45) = false /\ D - 48 = N.of_nat d /\ (D =? 10) = false /\
  (D =? 13) = false.
Proof.
  intros Hd D. unfold is_digit. repeat split.
  - apply andb_true_iff. split; apply N.leb_le; subst D; lia.
  - apply N.eqb_neq. subst D; lia.
  - apply N.eqb_neq. subst D; lia.
  - apply N.eqb_neq. subst D; lia.
  - subst D; lia.
  - apply N.eqb_neq. subst D; lia.
  - apply N.eqb_neq. subst D; lia.
Qed.

Lemma bs_hd_spec : forall c explicit digit_first (rest : list chr) s lk m w start,
  hd0 rest = 10 \/ hd0 rest = 13 \/ hd0 rest = 0 \/ hd0 rest = 32 \/ hd0 rest = 9 ->
  match explicit with Some d => (1 <= d <= 9)%nat | None => True end ->
  exists lk' w', (lk <= lk')%nat /\
  bs_hd (hd0 (hdr_chars c explicit digit_first ++ rest)) start (mv s (hdr_chars c explicit digit_first ++ rest) lk m w)
  = Ok ((to_model c, inc_of explicit), mv s rest lk' (mark_after brk m (hdr_chars c explicit digit_first)) w').
Proof.
  intros c explicit digit_first rest s lk m w start Hr0 Hd.
  assert (Hr : is_digit (hd0 rest) = false /\ (hd0 rest =? 43) = false /\ (hd0 rest =? 45) = false).
  { destruct Hr0 as [-> | [-> | [-> | [-> | ->]]]]; repeat split. }
  destruct Hr as [Hdig [H43 H45]].
  destruct explicit as [d|].
  - destruct (digit_facts d Hd) as [D1 [D2 [D3 [D4 [D5 [D6 D7]]]]]]. cbn zeta in *.
    destruct c, digit_first; cbn [hdr_chars app to_model inc_of]; set (D := 48 + N.of_nat d) in *; unfold bs_hd; hd0c;
      cbn [mark_after]; rewrite ?D1, ?D2, ?D3, ?D4, ?D6, ?D7; evalb;
      (eexists; eexists; split; [|
        repeat (first [ mstep ltac:(apply skip_non_blank_mv); cbn [tl]
                      | mstep ltac:(apply look_mv)
                      | mstep ltac:(apply peek_mv); try hd0c ];
                rewrite ?Hdig, ?H43, ?H45, ?D1, ?D2, ?D3, ?D4, ?D5; evalb);
        rewrite ?D5; reflexivity]; lia).
  - destruct c, digit_first; cbn [hdr_chars app to_model inc_of]; unfold bs_hd; try hd0c; rewrite ?Hdig, ?H43, ?H45;
      cbn [mark_after]; evalb;
      (eexists; eexists; split; [|
        repeat (first [ mstep ltac:(apply skip_non_blank_mv); cbn [tl]
                      | mstep ltac:(apply look_mv)
                      | mstep ltac:(apply peek_mv); try hd0c ];
                rewrite ?Hdig, ?H43, ?H45; evalb);
        reflexivity]; lia).
Qed.

(* the whole function *)
Lemma unroll_mv s cs lk m w pz inds : unroll_nb (sc_indents s) (sc_indent s) = (pz, inds) ->
  unroll_non_block_indents (mv s cs lk m w) = Ok (tt, mv (set_indent pz inds s) cs lk m w).
Proof. intros H. unfold unroll_non_block_indents, modify. cbn [sc_indents sc_indent mv set_lws set_flags upd]. rewrite H. reflexivity. Qed.

Lemma get_mv s cs lk m w : get (mv s cs lk m w) = Ok (mv s cs lk m w, mv s cs lk m w).
Proof. reflexivity. Qed.

Definition style_of (literal : bool) : style := if literal then Literal else Folded.
Definition yields (literal : bool) (value r' : list chr) (o : outcome (token * sc strin)) : Prop :=
  exists sp s', o = Ok ((sp, TScalar (style_of literal) value), s') /\ si_chars (sc_in s') = r'.

Lemma bind_P {A B} (P : outcome (B * sc strin) -> Prop) (m : MS A) (f : A -> MS B) (s : sc strin) a s' :
  m s = Ok (a, s') -> P (f a s') -> P (bind m f s).
Proof. intros H1 H2. unfold bind. rewrite H1. exact H2. Qed.
Ltac pstep tac := (eapply bind_P; [tac | cbv beta match]).

(* the tail of scan_block_scalar after the content loop, named *)
Definition bs_finish (literal : bool) (chomp : chomping) (indent : N) (cstart : marker) (r : list chr * N * N) : MS token :=
  let '(acc, lb, tb) := r in
  z <- next_is str_ops is_z ;; k <- col ;;
  let acc := match chomp with
             | Strip => acc
             | _ => let acc := nls lb acc in if (lb =? 0) && z && (N.max indent 1 <=? k) then 10 :: acc else acc
             end in
  let acc := match chomp with
             | Keep => let acc := nls tb acc in if negb (lb =? 0) && z && (0 <? k) then 10 :: acc else acc
             | _ => acc end in
  m <- mark ;;
  ret ({| sp_start := cstart; sp_end := m |}, TScalar (if literal then Literal else Folded) (rev acc)).

(* the rest of the header line: white space and an optional comment *)
Lemma in_skip_mv s cs lk m w : in_skip str_ops (mv s cs lk m w) = Ok (tt, mv s (tl cs) lk m w).
Proof. reflexivity. Qed.

Section Comment.
Variable kont : N -> MS (N * option (bool * bool)).
Fixpoint ws_comment (f : nat) (k : N) : MS (N * option (bool * bool)) :=
  match f with
  | O => oof
  | S f => c <- look_ch str_ops ;; if is_breakz c then kont (k + 1) else in_skip str_ops ;;; ws_comment f (k + 1)
  end.
End Comment.

Lemma in_skip_ws_to_eol_eq fuel st tab ws n :
  in_skip_ws_to_eol str_ops (S fuel) st tab ws n =
  (c <- look_ch str_ops ;;
   if c =? 32 then in_skip str_ops ;;; in_skip_ws_to_eol str_ops fuel st tab true (n + 1)
   else if (c =? 9) && (match st with SkipYes => true | SkipNo => false end) then
     in_skip str_ops ;;; in_skip_ws_to_eol str_ops fuel st true ws (n + 1)
   else if c =? 35 then
     if negb tab && negb ws then ret (n, None)
     else in_skip str_ops ;;; ws_comment (in_skip_ws_to_eol str_ops fuel st tab ws) fuel n
   else ret (n, Some (tab, ws))).
Proof. reflexivity. Qed.

Lemma ws_comment_spec kont (X : list chr) : is_breakz (hd0 X) = true -> forall (txt : list chr) f k s lk m w,
  nobreak txt -> (length txt < f)%nat ->
  ws_comment kont f k (mv s (txt ++ X) lk m w)
  = kont (k + N.of_nat (length txt) + 1) (mv s X (Nat.max lk 1) m w).
Proof.
  intros Hbz.
  induction txt as [|c txt IH]; intros f k s lk m w Hnb Hf; (destruct f as [|f]; [cbn in Hf; lia|]); cbn [ws_comment app].
  - mstep ltac:(apply look_ch_mv). rewrite Hbz. cbv match. cbn [length N.of_nat].
    rewrite N.add_0_r. reflexivity.
  - inversion Hnb as [|? ? Hc Hnb']; subst.
    mstep ltac:(apply look_ch_mv). hd0c. rewrite Hc.
    mstep ltac:(apply in_skip_mv). cbn [tl].
    rewrite IH by (auto; cbn in Hf; lia).
    replace (Nat.max (Nat.max lk 1) 1) with (Nat.max lk 1) by lia.
    cbn [length]. f_equal. lia.
Qed.

Definition whites (wh : list chr) : Prop := Forall (fun c => c = 32 \/ c = 9) wh.

(* white space: consumed, and remembered in one of the two flags *)
Lemma ws_whites : forall (wh rest : list chr) fuel tab ws n s lk m w,
  whites wh -> (length wh <= fuel)%nat ->
  exists tab' ws', (wh <> [] -> tab' || ws' = true) /\ (wh = [] -> tab' = tab /\ ws' = ws) /\
  in_skip_ws_to_eol str_ops (length wh + fuel) SkipYes tab ws n (mv s (wh ++ rest) lk m w)
  = in_skip_ws_to_eol str_ops fuel SkipYes tab' ws' (n + N.of_nat (length wh))
      (mv s rest (match wh with [] => lk | _ => Nat.max lk 1 end) m w).
Proof.
  induction wh as [|c wh IH]; intros rest fuel tab ws n s lk m w Hwh Hf.
  - exists tab, ws. split; [congruence|]. split; [tauto|]. cbn [length app N.of_nat Nat.add]. rewrite N.add_0_r. reflexivity.
  - inversion Hwh as [|? ? Hc Hwh']; subst. cbn [length Nat.add app]. rewrite in_skip_ws_to_eol_eq.
    destruct Hc as [-> | ->].
    + destruct (IH rest fuel tab true (n + 1) s (Nat.max lk 1) m w Hwh') as [tab' [ws' [H1 [H2 H3]]]]; [cbn [length] in Hf; lia|].
      exists tab', ws'. split; [|split; [discriminate|]].
      { intros _. destruct wh as [|c' wh']; [destruct (H2 eq_refl) as [-> ->]; apply orb_true_r|apply H1; discriminate]. }
      mstep ltac:(apply look_ch_mv). hd0c. change (32 =? 32) with true. cbv match.
      mstep ltac:(apply in_skip_mv). cbn [tl]. rewrite H3.
      replace (match wh with [] => Nat.max lk 1 | _ :: _ => Nat.max (Nat.max lk 1) 1 end) with (Nat.max lk 1)
        by (destruct wh; lia).
      f_equal. lia.
    + destruct (IH rest fuel true ws (n + 1) s (Nat.max lk 1) m w Hwh') as [tab' [ws' [H1 [H2 H3]]]]; [cbn [length] in Hf; lia|].
      exists tab', ws'. split; [|split; [discriminate|]].
      { intros _. destruct wh as [|c' wh']; [destruct (H2 eq_refl) as [-> ->]; reflexivity|apply H1; discriminate]. }
      mstep ltac:(apply look_ch_mv). hd0c. change (9 =? 32) with false. change (9 =? 9) with true. cbv match. cbn [andb].
      mstep ltac:(apply in_skip_mv). cbn [tl]. rewrite H3.
      replace (match wh with [] => Nat.max lk 1 | _ :: _ => Nat.max (Nat.max lk 1) 1 end) with (Nat.max lk 1)
        by (destruct wh; lia).
      f_equal. lia.
Qed.

(* a header tail: white space, then nothing or a comment (which needs the white space in front) *)
Inductive header_tail : list chr -> Prop :=
| ht_white wh : whites wh -> header_tail wh
| ht_comment wh txt : whites wh -> wh <> [] -> nobreak txt -> header_tail (wh ++ 35 :: txt).

Lemma header_tail_nolf hc : header_tail hc -> Forall (fun c => is_break c = false) hc.
Proof.
  assert (Hw : forall wh, whites wh -> Forall (fun c => is_break c = false) wh).
  { intros wh H. apply Forall_impl with (2 := H). intros c [-> | ->]; reflexivity. }
  intros [wh H|wh txt H _ Hnb]; [apply Hw; exact H|].
  apply Forall_app. split; [apply Hw; exact H|]. constructor; [reflexivity|]. apply nobreak_nolf. exact Hnb.
Qed.

(* the header tail is followed by [X]: a line break, or the end of the input *)
Lemma skip_ws_to_eol_hc F (hc X : list chr) s lk m w :
  is_breakz (hd0 X) = true ->
  header_tail hc -> (2 * length hc + 2 < F)%nat ->
  exists tw lk', (lk <= lk')%nat /\
  skip_ws_to_eol str_ops F SkipYes (mv s (hc ++ X) lk m w) = Ok (tw, mv s X lk' (mark_after brk m hc) w).
Proof.
  intros Hbz Hhc HF. rewrite (mark_after_nolf brk _ (header_tail_nolf _ Hhc)). unfold skip_ws_to_eol.
  assert (Hbf : (hd0 X =? 32) = false /\ (hd0 X =? 9) = false /\ (hd0 X =? 35) = false)
    by (destruct (breakz_cases _ Hbz) as [-> | [-> | ->]]; repeat split).
  destruct Hbf as [H32 [H9 H35]].
  destruct Hhc as [wh Hwh|wh txt Hwh Hne Hnb].
  - replace F with (length wh + (F - length wh))%nat by lia.
    destruct (ws_whites wh X (F - length wh) false false 0 s lk m w Hwh) as [tab' [ws' [_ [_ H3]]]]; [lia|].
    set (lkw := match wh with [] => lk | _ :: _ => Nat.max lk 1 end) in *.
    exists (tab', ws'), (Nat.max lkw 1). split; [subst lkw; destruct wh; lia|].
    destruct (F - length wh)%nat as [|f] eqn:E; [lia|].
    assert (Hrun : in_skip_ws_to_eol str_ops (S f) SkipYes tab' ws' (0 + N.of_nat (length wh)) (mv s X lkw m w)
                   = Ok ((0 + N.of_nat (length wh), Some (tab', ws')), mv s X (Nat.max lkw 1) m w)).
    { rewrite in_skip_ws_to_eol_eq. mstep ltac:(apply look_ch_mv). rewrite H32, H9, H35. reflexivity. }
    mstep ltac:(exact (eq_trans H3 Hrun)).
    cbn [fst snd]. mstep ltac:(apply adv_mark_mv). rewrite N.add_0_l. reflexivity.
  - rewrite <- app_assoc. cbn [app]. rewrite app_length in HF. cbn [length] in HF.
    replace F with (length wh + (F - length wh))%nat by lia.
    destruct (ws_whites wh (35 :: txt ++ X) (F - length wh) false false 0 s lk m w Hwh) as [tab' [ws' [H1 [_ H3]]]]; [lia|].
    specialize (H1 Hne).
    assert (Hflags : negb tab' && negb ws' = false) by (destruct tab', ws'; try reflexivity; discriminate).
    set (lkw := match wh with [] => lk | _ :: _ => Nat.max lk 1 end) in *.
    exists (tab', ws'), (Nat.max (Nat.max lkw 1) 1). split; [subst lkw; destruct wh; lia|].
    destruct (F - length wh)%nat as [|[|f]] eqn:E; [lia|lia|].
    assert (Hrun : in_skip_ws_to_eol str_ops (S (S f)) SkipYes tab' ws' (0 + N.of_nat (length wh)) (mv s (35 :: txt ++ X) lkw m w)
                   = Ok ((0 + N.of_nat (length wh) + N.of_nat (length txt) + 1, Some (tab', ws')),
                         mv s X (Nat.max (Nat.max lkw 1) 1) m w)).
    { rewrite in_skip_ws_to_eol_eq. mstep ltac:(apply look_ch_mv). hd0c. evalb. rewrite Hflags.
      mstep ltac:(apply in_skip_mv). cbn [tl]. rewrite (ws_comment_spec _ X Hbz) by (auto; lia).
      rewrite in_skip_ws_to_eol_eq. mstep ltac:(apply look_ch_mv). rewrite H32, H9, H35.
      replace (Nat.max (Nat.max (Nat.max lkw 1) 1) 1) with (Nat.max (Nat.max lkw 1) 1) by lia. reflexivity. }
    mstep ltac:(exact (eq_trans H3 Hrun)).
    cbn [fst snd]. mstep ltac:(apply adv_mark_mv). rewrite app_length. cbn [length].
    replace (N.of_nat (length wh + S (length txt))) with (0 + N.of_nat (length wh) + N.of_nat (length txt) + 1) by lia.
    reflexivity.
Qed.

Lemma header_tail_hd (hc X : list chr) : is_breakz (hd0 X) = true -> header_tail hc ->
  hd0 (hc ++ X) = 10 \/ hd0 (hc ++ X) = 13 \/ hd0 (hc ++ X) = 0 \/ hd0 (hc ++ X) = 32 \/ hd0 (hc ++ X) = 9.
Proof.
  intros Hbz.
  assert (Hw : forall wh Y, whites wh -> wh <> [] -> hd0 (wh ++ Y) = 32 \/ hd0 (wh ++ Y) = 9).
  { intros wh Y H Hne. destruct wh as [|c wh]; [congruence|]. inversion H as [|? ? Hc _]; subst. exact Hc. }
  intros [wh H|wh txt H Hne _].
  - destruct wh as [|c wh]; [cbn [app]; destruct (breakz_cases _ Hbz) as [E|[E|E]]; rewrite E; auto|].
    right; right; right. apply Hw; [exact H|discriminate].
  - right; right; right. rewrite <- app_assoc. apply Hw; assumption.
Qed.

(* the indentation phase of scan_block_scalar, named: the blank lines below the header and the indentation of the first
   line, given by the indicator or detected ([pz]: the indentation of the enclosing block) *)
Definition bs_indent (F : nat) (pz : Z) (increment : N) : MS (N * N) :=
  let indent0 := if 0 <? increment then (if (0 <=? pz)%Z then Z.to_N (pz + Z.of_N increment) else increment) else 0 in
  if indent0 =? 0 then
    r <- skip_first_line_indent str_ops F F 0 0 ;;
    let i := N.max (fst r) (Z.to_N (pz + 1)) in
    ret (if (0 <? pz)%Z then N.max i 1 else i, snd r)
  else b <- skip_block_scalar_indent str_ops F F indent0 0 ;; ret (indent0, b).

(* scan_block_scalar from the first line after the header on, named ([start]: the mark of the indicator) *)
Definition bs_main (F : nat) (literal : bool) (start : marker) (chomp : chomping) (increment : N) : MS token :=
  let style := if literal then Literal else Folded in
  s <- get ;;
  ib <- bs_indent F (sc_indent s) increment ;;
  let '(indent, tbreaks) := ib in
  z <- next_is str_ops is_z ;;
  s <- get ;;
  if z then
    let contents :=
      match chomp with
      | Strip => 0
      | _ => if m_line (sc_mark s) =? m_line start then 0
             else match chomp with
                  | Clip => 0
                  | _ => tbreaks + (if 0 <? m_col (sc_mark s) then 1 else 0)
                  end
      end in
    ret ({| sp_start := start; sp_end := sc_mark s |}, TScalar style (nls contents []))
  else
  wrong <- (if (m_col (sc_mark s) <? indent) && (sc_indent s <? Z.of_N (m_col (sc_mark s)))%Z then
              look str_ops 4 ;;; di <- next_is_document_indicator str_ops ;;
              ret (negb ((m_col (sc_mark s) =? 0) && di))
            else ret false) ;;
  if wrong then fail 83 (sc_mark s) else
  s <- get ;;
  r <- bs_loop F literal indent F [] 0 tbreaks false ;;
  bs_finish literal chomp indent (sc_mark s) r.

Lemma hdr_chars_nb c explicit digit_first : Forall (fun x => is_break x = false) (hdr_chars c explicit digit_first).
Proof.
  assert (HD : forall d, is_break (48 + N.of_nat d) = false).
  { intros d. unfold is_break. destruct (N.eqb_spec (48 + N.of_nat d) 10); [lia|].
    destruct (N.eqb_spec (48 + N.of_nat d) 13); [lia|]. reflexivity. }
  destruct c, explicit as [d|], digit_first; cbn [hdr_chars app]; repeat constructor; apply HD.
Qed.

Lemma hdr_line c explicit digit_first m : m_line (mark_after brk m (hdr_chars c explicit digit_first)) = m_line m.
Proof. rewrite (mark_after_nolf brk _ (hdr_chars_nb c explicit digit_first)). reflexivity. Qed.

(* the indicators and the rest of the header line, up to the line break or the end of the input [X] *)
Lemma scan_header_line : forall (P : outcome (token * sc strin) -> Prop) (s : sc strin) F literal c (explicit : option nat)
    (digit_first : bool) (hc X : list chr) pz inds,
  si_chars (sc_in s) = header literal c explicit digit_first ++ hc ++ X ->
  unroll_nb (sc_indents s) (sc_indent s) = (pz, inds) ->
  header_tail hc -> (2 * length hc + 2 < F)%nat -> is_breakz (hd0 X) = true ->
  match explicit with Some d => (1 <= d <= 9)%nat | None => True end ->
  (forall lk1 mh w1, lk1 <> O -> m_line mh = m_line (sc_mark s) ->
     P ((cbreak <- (if is_break (hd0 X) then look str_ops 2 ;;; skip_break str_ops ;;; ret 1 else ret 0) ;;
         c0 <- look_ch str_ops ;;
         if c0 =? 9 then fail 82 (sc_mark s) else bs_main F literal (sc_mark s) (to_model c) (inc_of explicit))
          (mv (set_indent pz inds s) X lk1 mh w1))) ->
  P (scan_block_scalar str_ops F literal s).
Proof.
  intros P s F literal c explicit digit_first hc X pz inds Hchars Hun Hhc HF0 Hbz Hd Hk.
  rewrite <- (mv_self s). rewrite Hchars. clear Hchars.
  rewrite header_hdr_chars. cbn [app].
  set (lk0 := si_look (sc_in s)). set (m0 := sc_mark s). set (w0 := sc_lws s).
  unfold scan_block_scalar.
  pstep ltac:(apply mark_mv). pstep ltac:(apply skip_non_blank_mv). cbn [tl].
  pstep ltac:(apply unroll_mv; exact Hun).
  pstep ltac:(apply look_ch_mv).
  set (s1 := set_indent pz inds s).
  pose proof (header_tail_hd hc X Hbz Hhc) as HB.
  destruct (bs_hd_spec c explicit digit_first (hc ++ X) s1 (Nat.max lk0 1) (adv 1 m0) false m0 HB Hd) as [lk1 [w1 [Hle1 Hhd]]].
  match goal with |- P (bind ?blk ?k ?st) => change (P (bind (bs_hd (hd0 (hdr_chars c explicit digit_first ++ hc ++ X)) m0) k st)) end.
  pstep ltac:(exact Hhd).
  destruct (skip_ws_to_eol_hc F hc X s1 lk1 (mark_after brk (adv 1 m0) (hdr_chars c explicit digit_first)) w1 Hbz Hhc HF0)
    as [tw [lk2 [Hle2 Hws]]].
  pstep ltac:(exact Hws). pstep ltac:(apply look_mv). pstep ltac:(apply peek_mv).
  rewrite Hbz. cbv match. cbn [negb].
  apply Hk; [lia|].
  rewrite (mark_after_nolf brk _ (header_tail_nolf _ Hhc)). cbn [adv m_line]. rewrite hdr_line. reflexivity.
Qed.

(* the header line: indicators, white space / comment, then the line break.  What remains is [bs_main] at the start
   of the next line. *)
Lemma scan_header : forall (P : outcome (token * sc strin) -> Prop) (s : sc strin) F literal c (explicit : option nat)
    (digit_first : bool) (hc BODY : list chr) pz inds,
  si_chars (sc_in s) = header literal c explicit digit_first ++ hc ++ brk ++ BODY ->
  unroll_nb (sc_indents s) (sc_indent s) = (pz, inds) ->
  header_tail hc -> (2 * length hc + 2 < F)%nat -> hd0 BODY <> 9 -> follow brk BODY ->
  match explicit with Some d => (1 <= d <= 9)%nat | None => True end ->
  (forall lk1 mh, lk1 <> O -> m_col mh = 0 -> m_line mh = m_line (sc_mark s) + 1 ->
     P (bs_main F literal (sc_mark s) (to_model c) (inc_of explicit) (mv (set_indent pz inds s) BODY lk1 mh true))) ->
  P (scan_block_scalar str_ops F literal s).
Proof.
  intros P s F literal c explicit digit_first hc BODY pz inds Hchars Hun Hhc HF0 Htab Hfol Hd Hk.
  apply (scan_header_line P s F literal c explicit digit_first hc (brk ++ BODY) pz inds); auto.
  { apply (brk_is_breakz brk Hbrk). }
  intros lk1 mh w1 Hlk1 Hline.
  rewrite (brk_is_break brk Hbrk).
  pstep ltac:(mstep ltac:(apply look_mv); mstep ltac:(apply (skip_break_brk brk Hbrk); exact Hfol); reflexivity).
  pstep ltac:(apply look_ch_mv).
  destruct (N.eqb_spec (hd0 BODY) 9) as [E|_]; [contradiction|].
  apply Hk; [lia|apply (col_brk brk Hbrk)|].
  rewrite (line_brk brk Hbrk). rewrite Hline. reflexivity.
Qed.

(* the content indentation that [bs_indent] returns in front of blank lines [ks] and a line of [k] spaces *)
Definition given_indent (pz : Z) (d : nat) : N := if (0 <=? pz)%Z then Z.to_N (pz + Z.of_N (N.of_nat d)) else N.of_nat d.
Definition main_indent (pz : Z) (explicit : option nat) (ks : list nat) (k : nat) : N :=
  match explicit with
  | Some d => given_indent pz d
  | None => let i := N.max (N.of_nat (maxl ks k)) (Z.to_N (pz + 1)) in if (0 <? pz)%Z then N.max i 1 else i
  end.

Lemma maxl_ge ks k : (k <= maxl ks k)%nat.
Proof. induction ks as [|k0 ks IH]; cbn [maxl fold_right]; [lia|]. fold (maxl ks k). lia. Qed.

Lemma bs_main_indent : forall explicit ks k (rest : list chr) F pz s lk m,
  m_col m = 0 -> hd0 rest <> 32 -> (length ks < F)%nat -> Forall (fun k => (k < F)%nat) (k :: ks) ->
  match explicit with
  | Some d => (1 <= d <= 9)%nat /\ Forall (fun k => N.of_nat k <= given_indent pz d) ks /\
              (given_indent pz d < N.of_nat k \/ is_break (hd0 rest) = false)
  | None => is_break (hd0 rest) = false
  end ->
  let indent := main_indent pz explicit ks k in
  let j := Nat.min k (N.to_nat indent) in
  exists lk', lk' <> O /\
  bs_indent F pz (inc_of explicit) (mv s (blank_lines ks ++ sps k ++ rest) lk m true)
  = Ok ((indent, N.of_nat (length ks)),
        mv s (sps (k - j) ++ rest) lk' (mark_after brk m (blank_lines ks ++ sps j)) true).
Proof.
  intros explicit ks k rest F pz s lk m Hcol Hr HL HF Hex indent j. unfold bs_indent.
  destruct explicit as [d|]; cbn [inc_of main_indent] in *.
  - destruct Hex as [Hd [Hks Hlast]].
    destruct (N.ltb_spec 0 (N.of_nat d)) as [_|Hbad]; [|lia]. fold (given_indent pz d). fold indent.
    assert (Hi : indent <> 0).
    { unfold indent, given_indent. destruct (0 <=? pz)%Z eqn:E; [apply Z.leb_le in E|]; lia. }
    destruct (N.eqb_spec indent 0) as [E|_]; [contradiction|].
    destruct (skip_block_scalar_indent_spec ks k rest F F indent 0 s lk m Hcol Hks Hr Hlast HL HF) as [lk' [_ [Hne Hs]]].
    exists lk'. split; [exact Hne|]. mstep ltac:(exact Hs). rewrite N.add_0_l. reflexivity.
  - change (0 <? 0) with false. cbv match. change (0 =? 0) with true. cbv match.
    destruct (skip_first_line_indent_spec ks k rest F F 0 0 s lk m Hcol Hr Hex HL HF) as [lk' [_ [Hne Hs]]].
    exists lk'. split; [exact Hne|]. mstep ltac:(exact Hs). cbn [fst snd]. rewrite N.add_0_l, N.max_0_l.
    (* the detected indentation is at least the length of the line, which therefore is consumed whole *)
    assert (Ej : j = k).
    { pose proof (maxl_ge ks k). subst j indent. cbv zeta. destruct (0 <? pz)%Z; lia. }
    rewrite Ej, Nat.sub_diag. reflexivity.
Qed.

(* From the indicator to the first content line: header, header line break, leading blank lines, indentation
   (given or detected).  What remains is the content loop at the first content character, and the tail.
   [TAIL] is what follows the first content line: nothing, or a line break and more. *)
Lemma scan_to_loop : forall (P : outcome (token * sc strin) -> Prop) (s : sc strin) F literal c (explicit : option nat)
    (digit_first : bool) (hc : list chr) (ks1 : list nat) (e1 : nat) (txt1 TAIL : list chr) (n : nat) pz inds,
  si_chars (sc_in s) = header literal c explicit digit_first ++ hc ++ sep_chunk n (ks1, e1, txt1) ++ TAIL ->
  unroll_nb (sc_indents s) (sc_indent s) = (pz, inds) ->
  header_tail hc -> (2 * length hc + 2 < F)%nat ->
  hd0 (chunk_text_nolf n (ks1, e1, txt1)) <> 9 ->
  chunk_ok F n (ks1, e1, txt1) -> is_breakz (hd0 TAIL) = true ->
  match explicit with
  | Some d => (1 <= d <= 9)%nat /\ N.of_nat n = given_indent pz d
  | None => Z.to_N (pz + 1) <= N.of_nat n /\ e1 = O /\ txt1 <> []
  end ->
  (forall s1 lk2 m2, lk2 <> O -> m_col m2 = N.of_nat n ->
     P ((r <- bs_loop F literal (N.of_nat n) F [] 0 (N.of_nat (length ks1)) false ;;
         bs_finish literal (to_model c) (N.of_nat n) m2 r) (mv s1 ((sps e1 ++ txt1) ++ TAIL) lk2 m2 true))) ->
  P (scan_block_scalar str_ops F literal s).
Proof.
  intros P s F literal c explicit digit_first hc ks1 e1 txt1 TAIL n pz inds Hchars Hun Hhc HFhc Htab Hc1 HT Hind Hk.
  destruct (chunk_content_facts _ _ _ _ _ Hc1) as [Hne' [Hnbt _]].
  apply (scan_header P s F literal c explicit digit_first hc (chunk_text_nolf n (ks1, e1, txt1) ++ TAIL) pz inds); auto.
  { rewrite Hchars. unfold sep_chunk. rewrite <- !app_assoc. reflexivity. }
  { rewrite hd0_app_ne by exact (chunk_nolf_ne F n _ _ _ Hc1). exact Htab. }
  { apply (follow_chunk F). exact Hc1. }
  { destruct explicit; tauto. }
  destruct Hc1 as [Hks1 [Hnb1 [Hhd1 [Hne1 [Hks1F [Hks1L Hlen1]]]]]].
  intros lk1 mh Hlk1 Hmh Hline. cbn [chunk_text_nolf]. rewrite <- !app_assoc.
  set (s1 := set_indent pz inds s).
  assert (Hs1 : forall cs lk m w, sc_indent (mv s1 cs lk m w) = pz) by reflexivity.
  assert (Hmk : forall cs lk m w, sc_mark (mv s1 cs lk m w) = m) by reflexivity.
  unfold bs_main. pstep ltac:(apply get_mv). rewrite !Hs1.
  assert (Ei : main_indent pz explicit ks1 (n + e1) = N.of_nat n).
  { destruct explicit as [d|]; cbn [main_indent]; [symmetry; exact (proj2 Hind)|].
    destruct Hind as [Hpz [-> _]]. rewrite Nat.add_0_r.
    assert (Hmax : maxl ks1 n = n).
    { clear - Hks1. induction Hks1 as [|k ks Hk' _ IH]; [reflexivity|]. cbn [maxl fold_right]. fold (maxl ks n). lia. }
    rewrite Hmax. destruct (Z.ltb_spec 0 pz); lia. }
  assert (Hbrk1 : N.of_nat n < N.of_nat (n + e1) \/ is_break (hd0 (txt1 ++ TAIL)) = false).
  { destruct Hne1 as [He|Hs]; [left; lia|right].
    rewrite hd0_app_ne by exact Hs. exact (proj1 (breakz_parts _ (nobreak_hd0 _ Hnb1 Hs))). }
  destruct (bs_main_indent explicit ks1 (n + e1) (txt1 ++ TAIL) F pz s1 lk1 mh Hmh) as [lk2 [Hne2 Hib]].
  { destruct txt1 as [|c0 t]; [|exact Hhd1]. cbn [app]. intro E. rewrite E in HT. discriminate HT. }
  { exact Hks1L. }
  { constructor; [lia|exact Hks1F]. }
  { destruct explicit as [d|].
    - destruct Hind as [Hd <-]. split; [exact Hd|]. split; [|exact Hbrk1].
      apply Forall_impl with (2 := Hks1). intros k Hk'. lia.
    - destruct Hind as [_ [-> Htx1]]. destruct Hbrk1 as [Hbad|H]; [lia|exact H]. }
  cbv zeta in Hib. rewrite Ei, Nat2N.id in Hib.
  replace (Nat.min (n + e1) n) with n in Hib by lia. replace (n + e1 - n)%nat with e1 in Hib by lia.
  rewrite (app_assoc (sps e1)) in Hib.
  pstep ltac:(exact Hib).
  set (m2 := mark_after brk mh (blank_lines ks1 ++ sps n)).
  assert (Hcol2 : m_col m2 = N.of_nat n) by (apply col_after_blank_lines; exact Hmh).
  pstep ltac:(apply next_is_mv). rewrite (hd0_app_ne (sps e1 ++ txt1)) by exact Hne'.
  rewrite (proj2 (breakz_parts _ (nobreak_hd0 _ Hnbt Hne'))).
  pstep ltac:(apply get_mv). rewrite !Hmk, !Hs1, Hcol2, N.ltb_irrefl. cbn [andb].
  pstep ltac:(reflexivity). pstep ltac:(apply get_mv). rewrite !Hmk.
  exact (Hk s1 lk2 m2 Hne2 Hcol2).
Qed.

(* ... and through all the content lines: what remains is the loop behind the last of them, in front of [E] (a line
   break and more, or the end of the input), and the tail *)
Lemma scan_lines : forall (P : outcome (token * sc strin) -> Prop) (s : sc strin) F literal c (explicit : option nat)
    (digit_first : bool) (hc : list chr) (ck : chunk) (chunks : list chunk) (E : list chr) (n : nat) pz inds f,
  si_chars (sc_in s) = header literal c explicit digit_first ++ hc ++ flat_map (sep_chunk n) (ck :: chunks) ++ E ->
  unroll_nb (sc_indents s) (sc_indent s) = (pz, inds) ->
  header_tail hc -> (2 * length hc + 2 < F)%nat ->
  hd0 (chunk_text_nolf n ck) <> 9 -> Forall (chunk_ok F n) (ck :: chunks) -> Forall (chunk_col0 n) (ck :: chunks) ->
  is_breakz (hd0 E) = true -> F = S (length chunks + f) ->
  match explicit with
  | Some d => (1 <= d <= 9)%nat /\ N.of_nat n = given_indent pz d
  | None => Z.to_N (pz + 1) <= N.of_nat n /\ (let '(ks, e, txt) := ck in e = O /\ txt <> [])
  end ->
  (forall s1 lk m0 mend w tbk, lk <> O -> N.max (N.of_nat n) 1 <= m_col mend ->
     P ((r <- bs_line_end F literal n f (acc_chunks literal [] 0 false (ck :: chunks)) tbk ;;
         bs_finish literal (to_model c) (N.of_nat n) m0 r) (mv s1 E lk mend w))) ->
  P (scan_block_scalar str_ops F literal s).
Proof.
  intros P s F literal c explicit digit_first hc [[ks1 e1] txt1] chunks E n pz inds f
         Hchars Hun Hhc HFhc Htab Hch Hc0 HE HF Hind Hk.
  apply (scan_to_loop P s F literal c explicit digit_first hc ks1 e1 txt1 (flat_map (sep_chunk n) chunks ++ E) n pz inds); auto.
  { rewrite Hchars. cbn [flat_map]. rewrite <- !app_assoc. reflexivity. }
  { exact (Forall_inv Hch). }
  { apply sep_chunks_breakz. exact HE. }
  intros s1 lk2 m2 Hne2 Hcol2.
  destruct (bs_loop_lines chunks ks1 e1 txt1 E F literal n f [] 0 false s1 lk2 m2 true Hch Hc0 HE Hcol2)
    as [lk' [mend [w' [tbk [H1 [H2 Hrun]]]]]].
  replace (bs_loop F literal (N.of_nat n) F) with (bs_loop F literal (N.of_nat n) (S (length chunks + f)))
    by (rewrite <- HF; reflexivity).
  rewrite (bind_congr _ _ _ _ _ Hrun).
  exact (Hk s1 lk' m2 mend w' tbk H1 H2).
Qed.

(* the header and its comment contain no line feed *)
Lemma wbrk_head literal c explicit digit_first hc X : header_tail hc ->
  wbrk (header literal c explicit digit_first ++ hc ++ X) = header literal c explicit digit_first ++ hc ++ wbrk X.
Proof.
  intros Hhc. rewrite !wbrk_app. f_equal; [|f_equal].
  - rewrite header_hdr_chars. apply wbrk_nolf. constructor; [destruct literal; discriminate|].
    apply nolf_of_nb. apply hdr_chars_nb.
  - apply wbrk_nolf, nolf_of_nb, header_tail_nolf. exact Hhc.
Qed.

Lemma render_block_rest n literal c explicit digit_first hc chunks tks : header_tail hc -> Forall chunk_nb chunks ->
  wbrk (render_block n literal c explicit digit_first hc (flat_map chunk_lines chunks ++ map Blank tks) (EofRest []))
  = header literal c explicit digit_first ++ hc ++ flat_map (sep_chunk n) chunks ++ brk ++ blank_lines tks.
Proof.
  intros Hhc Hnb. unfold render_block. rewrite wbrk_head by exact Hhc.
  rewrite flat_map_app, <- app_assoc, wbrk_app, render_chunks_sep by exact Hnb.
  rewrite flat_map_shift, wbrk_lf, app_nil_r, render_blanks. reflexivity.
Qed.

Lemma chunks_nb F n chunks : Forall (chunk_ok F n) chunks -> Forall chunk_nb chunks.
Proof. apply Forall_impl. exact (chunk_ok_nb F n). Qed.

(* the last line of the input when the input ends inside it: j >= 1 spaces and nothing else — one more empty line
   (reading R1 of the specification: the end of the input terminates a line like a line break does) *)
Definition eof_blank (j : nat) (r' : list chr) : list nat :=
  match r' with [] => (match j with O => [] | S _ => [j] end) | _ => [] end.

(* every line terminated by a line feed, then a less indented line, a document marker, or the end of the input —
   possibly inside a last line of at most n spaces *)
Theorem block_scalar_chunks : forall (s : sc strin) F literal c (explicit : option nat) (digit_first : bool) (hc : list chr)
    (ck : chunk) (chunks : list chunk) (tks : list nat) (j : nat) (r' : list chr) (n : nat) pz inds,
  let lines := flat_map chunk_lines (ck :: chunks) ++ map Blank tks in
  si_chars (sc_in s) = wbrk (render_block n literal c explicit digit_first hc lines (EofRest [])) ++ sps j ++ r' ->
  unroll_nb (sc_indents s) (sc_indent s) = (pz, inds) ->
  header_tail hc -> (2 * length hc + 2 < F)%nat ->
  hd0 (chunk_text_nolf n ck) <> 9 -> Forall (chunk_ok F n) (ck :: chunks) -> Forall (chunk_col0 n) (ck :: chunks) ->
  Forall (fun k => (k <= n)%nat) tks -> Forall (fun k => (k < F)%nat) tks -> (length tks < F)%nat ->
  ends_after n j r' -> hd0 r' <> 32 -> is_break (hd0 r') = false -> (r' <> [] -> hd0 r' <> 0) ->
  (S (length chunks) < F)%nat ->
  match explicit with
  | Some d => (1 <= d <= 9)%nat /\ N.of_nat n = given_indent pz d
  | None => Z.to_N (pz + 1) <= N.of_nat n /\ (let '(ks, e, txt) := ck in e = O /\ txt <> [])
  end ->
  yields literal (block_value literal c (lines ++ map Blank (eof_blank j r'))) r' (scan_block_scalar str_ops F literal s).
Proof.
  intros s F literal c explicit digit_first hc ck chunks tks j r' n pz inds lines Hchars Hun Hhc HFhc Htab Hch Hc0 Htks HtksF HtksL Hj Hr Hrb Hrz HchL Hind.
  assert (HjF : (j < F)%nat).
  { destruct ck as [[ks1 e1] txt1]. destruct (Forall_inv Hch) as [_ [_ [_ [_ [_ [_ Hl]]]]]].
    destruct Hj as [H|[[_ H]|[_ [-> _]]]]; lia. }
  apply (scan_lines _ s F literal c explicit digit_first hc ck chunks (brk ++ blank_lines tks ++ sps j ++ r') n pz inds
           (S (F - length chunks - 2))); auto; [| apply (brk_is_breakz brk Hbrk) | lia |].
  { rewrite Hchars. unfold lines. rewrite render_block_rest by (try apply (chunks_nb F n); assumption).
    rewrite <- !app_assoc. reflexivity. }
  intros s1 lk m0 mend w tbk Hlk _.
  destruct (bs_line_end_exit tks j r' F literal n (F - length chunks - 2) (acc_chunks literal [] 0 false (ck :: chunks)) tbk
              s1 lk mend w Htks HtksF HtksL Hj HjF Hr Hrb) as [lk' [_ Hx]].
  pstep ltac:(exact Hx).
  unfold bs_finish.
  pstep ltac:(apply next_is_mv). pstep ltac:(apply col_mv). pstep ltac:(apply mark_mv).
  rewrite col_after_blank_lines by (apply (col_brk brk Hbrk)).
  change (1 =? 0) with false. cbn [andb negb].
  (* the tail: with lb = 1 clip adds nothing; keep adds one line feed for a last line of spaces ended by the input *)
  set (tks' := tks ++ eof_blank j r').
  assert (Etail : forall A : list chr,
                    (if is_z (hd0 r') && (0 <? N.of_nat j) then 10 :: nls (N.of_nat (length tks)) A else nls (N.of_nat (length tks)) A)
                    = nls (N.of_nat (length tks')) A).
  { intros A. subst tks'. unfold eof_blank. destruct r' as [|c0 r0].
    - change (is_z (hd0 [])) with true. destruct j as [|j'].
      + rewrite app_nil_r. reflexivity.
      + destruct (N.ltb_spec 0 (N.of_nat (S j'))) as [_|Hbad]; [|lia]. cbn [andb].
        rewrite app_length. cbn [length]. rewrite Nat.add_comm, Nat2N.inj_add, nls_add. reflexivity.
    - assert (Hz : is_z (hd0 (c0 :: r0)) = false) by (apply N.eqb_neq; apply Hrz; discriminate).
      rewrite Hz, app_nil_r. reflexivity. }
  assert (Eval : block_value literal c (lines ++ map Blank (eof_blank j r')) =
                 rev (match to_model c with Keep => nls (N.of_nat (length tks')) | _ => fun a => a end
                        (match to_model c with
                         | Strip => acc_chunks literal [] 0 false (ck :: chunks)
                         | _ => nls 1 (acc_chunks literal [] 0 false (ck :: chunks)) end))).
  { unfold lines. rewrite <- app_assoc, <- map_app. fold tks'. rewrite chunks_value by discriminate. reflexivity. }
  rewrite Eval. unfold yields. eexists. eexists. split.
  - destruct c; cbn [to_model]; [reflexivity|reflexivity|]. rewrite Etail. reflexivity.
  - reflexivity.
Qed.

(* the end of the input right behind the last content line (no final line break) *)
Theorem block_scalar_chunks_eof : forall (s : sc strin) F literal c (explicit : option nat) (digit_first : bool) (hc : list chr)
    (ck : chunk) (chunks : list chunk) (n : nat) pz inds,
  let lines := flat_map chunk_lines (ck :: chunks) in
  si_chars (sc_in s) = wbrk (render_block n literal c explicit digit_first hc lines EofNone) ->
  unroll_nb (sc_indents s) (sc_indent s) = (pz, inds) ->
  header_tail hc -> (2 * length hc + 2 < F)%nat ->
  hd0 (chunk_text_nolf n ck) <> 9 -> Forall (chunk_ok F n) (ck :: chunks) -> Forall (chunk_col0 n) (ck :: chunks) ->
  (S (length chunks) < F)%nat ->
  match explicit with
  | Some d => (1 <= d <= 9)%nat /\ N.of_nat n = given_indent pz d
  | None => Z.to_N (pz + 1) <= N.of_nat n /\ (let '(ks, e, txt) := ck in e = O /\ txt <> [])
  end ->
  yields literal (block_value literal c lines) [] (scan_block_scalar str_ops F literal s).
Proof.
  intros s F literal c explicit digit_first hc ck chunks n pz inds lines Hchars Hun Hhc HFhc Htab Hch Hc0 HchL Hind.
  assert (Eval : block_value literal c lines =
                 rev (match to_model c with Keep => nls (N.of_nat 0) | _ => fun a => a end
                        (match to_model c with
                         | Strip => acc_chunks literal [] 0 false (ck :: chunks)
                         | _ => nls 1 (acc_chunks literal [] 0 false (ck :: chunks)) end))).
  { pose proof (chunks_value literal c (ck :: chunks) [] [] ltac:(discriminate)) as E.
    cbn [map rev app length] in E. rewrite app_nil_r in E. symmetry. exact E. }
  apply (scan_lines _ s F literal c explicit digit_first hc ck chunks [] n pz inds (F - length chunks - 1)); auto; [|lia|].
  { rewrite Hchars. unfold render_block, lines. rewrite wbrk_head by exact Hhc.
    rewrite !app_nil_r, render_chunks_sep by (apply (chunks_nb F n); exact Hch). reflexivity. }
  intros s1 lk m0 mend w tbk Hlk Hcm.
  pstep ltac:(reflexivity).
  unfold bs_finish.
  pstep ltac:(apply next_is_mv). pstep ltac:(apply col_mv). pstep ltac:(apply mark_mv).
  change (is_z (hd0 [])) with true.
  destruct (N.leb_spec (N.max (N.of_nat n) 1) (m_col mend)) as [_|Hbad]; [|lia].
  rewrite Eval. unfold yields. eexists. eexists. split.
  - destruct c; reflexivity.
  - reflexivity.
Qed.

(* from line lists to chunks *)
(* side conditions on one line, for content indentation n and fuel F *)
Definition line_ok (F n : nat) (l : bline) : Prop :=
  match l with
  | Blank k => (k <= n)%nat /\ (k < F)%nat
  | Text e s => nobreak s /\ hd0 s <> 32 /\ (e <> O \/ s <> []) /\ (n + e + length s < F)%nat
  end.

(* [ks]: the blank lines seen since the last content line, most recent first *)
Fixpoint split_lines (ls : list bline) (ks : list nat) : list chunk * list nat :=
  match ls with
  | [] => ([], rev ks)
  | Blank k :: r => split_lines r (k :: ks)
  | Text e s :: r => let '(cs, t) := split_lines r [] in ((rev ks, e, s) :: cs, t)
  end.

Lemma split_lines_spec : forall ls ks cs t, split_lines ls ks = (cs, t) ->
  map Blank (rev ks) ++ ls = flat_map chunk_lines cs ++ map Blank t.
Proof.
  induction ls as [|[e s|k] r IH]; intros ks cs t H; cbn [split_lines] in H.
  - inversion H; subst. rewrite app_nil_r. reflexivity.
  - destruct (split_lines r []) as [cs' t'] eqn:E. inversion H; subst.
    cbn [flat_map chunk_lines]. rewrite <- !app_assoc. rewrite <- (IH [] cs' t E). cbn [rev map app]. reflexivity.
  - rewrite <- (IH (k :: ks) cs t H). cbn [rev]. rewrite map_app, <- app_assoc. reflexivity.
Qed.

Lemma split_lines_ok F n : forall ls ks cs t, split_lines ls ks = (cs, t) ->
  Forall (line_ok F n) ls -> Forall (fun k => (k <= n)%nat /\ (k < F)%nat) ks ->
  (length ks + length ls < F)%nat ->
  Forall (chunk_ok F n) cs /\ Forall (fun k => (k <= n)%nat) t /\ Forall (fun k => (k < F)%nat) t /\
  (length t < F)%nat /\ (length cs <= length ls)%nat.
Proof.
  induction ls as [|[e s|k] r IH]; intros ks cs t H Hls Hks Hlen; cbn [split_lines] in H.
  - inversion H; subst. split; [constructor|].
    assert (Hr : Forall (fun k => (k <= n)%nat /\ (k < F)%nat) (rev ks)) by (apply Forall_rev; exact Hks).
    split; [apply Forall_impl with (2 := Hr); tauto|]. split; [apply Forall_impl with (2 := Hr); tauto|].
    rewrite rev_length. cbn [length] in *. split; lia.
  - destruct (split_lines r []) as [cs' t'] eqn:E. inversion H; subst.
    pose proof (Forall_inv Hls) as Hl. pose proof (Forall_inv_tail Hls) as Hr. cbn [line_ok] in Hl.
    destruct Hl as [Hnb [Hhd [Hne Hlen']]].
    destruct (IH [] cs' t E Hr) as [Hcs [Ht1 [Ht2 [Ht3 Ht4]]]]; [constructor|cbn [length] in *; lia|].
    assert (Hrk : Forall (fun k => (k <= n)%nat /\ (k < F)%nat) (rev ks)) by (apply Forall_rev; exact Hks).
    split; [|cbn [length] in *; repeat split; auto; lia].
    constructor; [|exact Hcs]. cbn [chunk_ok]. rewrite rev_length.
    split; [apply Forall_impl with (2 := Hrk); tauto|]. split; [exact Hnb|]. split; [exact Hhd|]. split; [exact Hne|].
    split; [apply Forall_impl with (2 := Hrk); tauto|]. cbn [length] in Hlen. split; [lia|exact Hlen'].
  - pose proof (Forall_inv Hls) as Hl. pose proof (Forall_inv_tail Hls) as Hr. cbn [line_ok] in Hl.
    destruct (IH (k :: ks) cs t H Hr) as [Hcs [Ht1 [Ht2 [Ht3 Ht4]]]]; [constructor; assumption|cbn [length] in *; lia|].
    cbn [length]. repeat split; auto.
Qed.

Lemma split_lines_text : forall ls ks, has_text ls = true -> fst (split_lines ls ks) <> [].
Proof.
  induction ls as [|[e s|k] r IH]; intros ks H; cbn [split_lines].
  - discriminate.
  - destruct (split_lines r []). discriminate.
  - apply IH. exact H.
Qed.

(* the first content line *)
Fixpoint first_text (ls : list bline) : option (nat * list N) :=
  match ls with [] => None | Text e s :: _ => Some (e, s) | Blank _ :: r => first_text r end.

Lemma split_lines_first : forall ls ks e s, first_text ls = Some (e, s) ->
  exists ks' cs t, split_lines ls ks = ((ks', e, s) :: cs, t).
Proof.
  induction ls as [|[e0 s0|k] r IH]; intros ks e s H; cbn [first_text split_lines] in *.
  - discriminate.
  - inversion H; subst. destruct (split_lines r []) as [cs t]. eexists; eexists; eexists; reflexivity.
  - apply IH. exact H.
Qed.

Definition line_col0 (n : nat) (l : bline) : Prop :=
  match l with Text e s => n = O -> e = O -> marker_line s = false | Blank _ => True end.
(* the first character after the header line *)
Definition first_char (n : nat) (lines : list bline) : chr := hd0 (flat_map (fun l => render_line n l ++ [LF]) lines).

Lemma split_lines_col0 n : forall ls ks cs t, split_lines ls ks = (cs, t) ->
  Forall (line_col0 n) ls -> Forall (chunk_col0 n) cs.
Proof.
  induction ls as [|[e s|k] r IH]; intros ks cs t H Hls; cbn [split_lines] in H.
  - inversion H; subst. constructor.
  - destruct (split_lines r []) as [cs' t'] eqn:E. inversion H; subst.
    constructor; [exact (Forall_inv Hls)|]. apply (IH [] cs' t E). exact (Forall_inv_tail Hls).
  - apply (IH (k :: ks) cs t H). exact (Forall_inv_tail Hls).
Qed.

Lemma first_char_chunk F n ck cs t : chunk_ok F n ck ->
  first_char n (flat_map chunk_lines (ck :: cs) ++ map Blank t) <> 9 -> hd0 (chunk_text_nolf n ck) <> 9.
Proof.
  destruct ck as [[[|[|k] ks] e] txt]; intros Hc Hfc.
  - unfold first_char in Hfc. cbn [flat_map chunk_lines map app render_line] in Hfc. rewrite <- !app_assoc in Hfc.
    rewrite (app_assoc (spaces (n + e))), hd0_app_ne in Hfc by exact (chunk_nolf_ne F n _ _ _ Hc). exact Hfc.
  - cbn [chunk_text_nolf blank_lines flat_map]. change (sps 0 ++ brk) with brk. rewrite <- !app_assoc.
    apply (brk_not_tab brk Hbrk).
  - discriminate.
Qed.

(* the side conditions on the lines carry over to their chunks *)
Lemma lines_chunks F n (lines : list bline) :
  Forall (line_ok F n) lines -> Forall (line_col0 n) lines -> (n = O -> first_char n lines <> 9) ->
  (S (length lines) < F)%nat -> has_text lines = true ->
  exists ck cs t,
    lines = flat_map chunk_lines (ck :: cs) ++ map Blank t /\
    Forall (chunk_ok F n) (ck :: cs) /\ Forall (chunk_col0 n) (ck :: cs) /\ hd0 (chunk_text_nolf n ck) <> 9 /\
    Forall (fun k => (k <= n)%nat) t /\ Forall (fun k => (k < F)%nat) t /\ (length t < F)%nat /\ (S (length cs) < F)%nat /\
    (forall txt, first_text lines = Some (O, txt) -> let '(ks, e, tx) := ck in e = O /\ tx = txt).
Proof.
  intros Hls Hl0 Hfc Hlen Htext.
  destruct (split_lines lines []) as [cs t] eqn:E.
  pose proof (split_lines_spec lines [] cs t E) as Hsp. cbn [rev map app] in Hsp.
  destruct (split_lines_ok F n lines [] cs t E Hls) as [Hcs [Ht1 [Ht2 [Ht3 Ht4]]]]; [constructor|cbn [length]; lia|].
  pose proof (split_lines_col0 n lines [] cs t E Hl0) as Hcs0.
  pose proof (split_lines_text lines [] Htext) as Hne. rewrite E in Hne. cbn [fst] in Hne.
  destruct cs as [|ck cs]; [congruence|].
  exists ck, cs, t. repeat split; try assumption.
  - destruct n as [|n']; [|apply tab_pos; discriminate].
    apply (first_char_chunk F O ck cs t (Forall_inv Hcs)). rewrite <- Hsp. apply Hfc. reflexivity.
  - cbn [length] in Ht4. lia.
  - intros txt Hft. destruct (split_lines_first lines [] O txt Hft) as [ks' [cs' [t' E']]].
    rewrite E in E'. inversion E'; subst. split; reflexivity.
Qed.

(* (T4) both styles, explicit or auto-detected indentation, any chomping: every list of content lines (of any extra
   indentation, whitespace-only content lines included) and blank lines, with at least one content line, each line
   terminated by a line feed, followed by a less indented line, a document marker (content indentation 0), or the end
   of the input — possibly inside a last line of j <= n spaces, which then is one more empty line ([eof_blank]) *)
Theorem block_scalar_lines_gen : forall (s : sc strin) F literal c (explicit : option nat) (digit_first : bool) (hc : list chr)
    (lines : list bline) (j : nat) (r' : list chr) (n : nat) pz inds,
  si_chars (sc_in s) = wbrk (render_block n literal c explicit digit_first hc lines (EofRest [])) ++ sps j ++ r' ->
  unroll_nb (sc_indents s) (sc_indent s) = (pz, inds) ->
  header_tail hc -> (2 * length hc + 2 < F)%nat ->
  Forall (line_ok F n) lines -> Forall (line_col0 n) lines -> (n = O -> first_char n lines <> 9) ->
  (S (length lines) < F)%nat -> has_text lines = true ->
  ends_after n j r' -> hd0 r' <> 32 -> is_break (hd0 r') = false -> (r' <> [] -> hd0 r' <> 0) ->
  match explicit with
  | Some d => (1 <= d <= 9)%nat /\ N.of_nat n = (if (0 <=? pz)%Z then Z.to_N (pz + Z.of_N (N.of_nat d)) else N.of_nat d)
  | None => Z.to_N (pz + 1) <= N.of_nat n /\ exists txt, first_text lines = Some (O, txt) /\ txt <> []
  end ->
  yields literal (block_value literal c (lines ++ map Blank (eof_blank j r'))) r' (scan_block_scalar str_ops F literal s).
Proof.
  intros s F literal c explicit digit_first hc lines j r' n pz inds Hchars Hun Hhc HFhc Hls Hl0 Hfc Hlen Htext Hj Hr Hrb Hrz Hind.
  destruct (lines_chunks F n lines Hls Hl0 Hfc Hlen Htext) as [ck [cs [t [Hsp [Hcs [Hcs0 [Htab [Ht1 [Ht2 [Ht3 [Ht4 Hft]]]]]]]]]]].
  rewrite Hsp in Hchars |- *.
  apply (block_scalar_chunks s F literal c explicit digit_first hc ck cs t j r' n pz inds); auto.
  destruct explicit as [d|]; [exact Hind|].
  destruct Hind as [Hpz [txt [Hft' Htx]]]. split; [exact Hpz|].
  specialize (Hft txt Hft'). destruct ck as [[ks e] tx]. destruct Hft as [-> ->]. split; [reflexivity|exact Htx].
Qed.

(* every line is terminated by a line feed; what follows is not a last line of spaces ended by the input *)
Theorem block_scalar_lines : forall (s : sc strin) F literal c (explicit : option nat) (digit_first : bool) (hc : list chr)
    (lines : list bline) (j : nat) (r' : list chr) (n : nat) pz inds,
  si_chars (sc_in s) = wbrk (render_block n literal c explicit digit_first hc lines (EofRest [])) ++ sps j ++ r' ->
  unroll_nb (sc_indents s) (sc_indent s) = (pz, inds) ->
  header_tail hc -> (2 * length hc + 2 < F)%nat ->
  Forall (line_ok F n) lines -> Forall (line_col0 n) lines -> (n = O -> first_char n lines <> 9) ->
  (S (length lines) < F)%nat -> has_text lines = true ->
  ends_after n j r' -> hd0 r' <> 32 -> is_break (hd0 r') = false -> (r' = [] -> j = O) -> (r' <> [] -> hd0 r' <> 0) ->
  match explicit with
  | Some d => (1 <= d <= 9)%nat /\ N.of_nat n = (if (0 <=? pz)%Z then Z.to_N (pz + Z.of_N (N.of_nat d)) else N.of_nat d)
  | None => Z.to_N (pz + 1) <= N.of_nat n /\ exists txt, first_text lines = Some (O, txt) /\ txt <> []
  end ->
  yields literal (block_value literal c lines) r' (scan_block_scalar str_ops F literal s).
Proof.
  intros s F literal c explicit digit_first hc lines j r' n pz inds Hchars Hun Hhc HFhc Hls Hl0 Hfc Hlen Htext Hj Hr Hrb Hj0 Hrz Hind.
  assert (E : eof_blank j r' = []).
  { unfold eof_blank. destruct r' as [|c0 r0]; [|reflexivity]. rewrite (Hj0 eq_refl). reflexivity. }
  rewrite <- (app_nil_r lines) at 1. change (@nil bline) with (map Blank []). rewrite <- E.
  apply (block_scalar_lines_gen s F literal c explicit digit_first hc lines j r' n pz inds); assumption.
Qed.

(* the same without a final line break: the input ends right after the last content line *)
Theorem block_scalar_lines_eof_text : forall (s : sc strin) F literal c (explicit : option nat) (digit_first : bool) (hc : list chr)
    (lines : list bline) (n : nat) pz inds,
  si_chars (sc_in s) = wbrk (render_block n literal c explicit digit_first hc lines EofNone) ->
  unroll_nb (sc_indents s) (sc_indent s) = (pz, inds) ->
  header_tail hc -> (2 * length hc + 2 < F)%nat ->
  Forall (line_ok F n) lines -> Forall (line_col0 n) lines -> (n = O -> first_char n lines <> 9) ->
  (S (length lines) < F)%nat -> has_text lines = true ->
  trailing_blanks lines = O ->
  match explicit with
  | Some d => (1 <= d <= 9)%nat /\ N.of_nat n = (if (0 <=? pz)%Z then Z.to_N (pz + Z.of_N (N.of_nat d)) else N.of_nat d)
  | None => Z.to_N (pz + 1) <= N.of_nat n /\ exists txt, first_text lines = Some (O, txt) /\ txt <> []
  end ->
  yields literal (block_value literal c lines) [] (scan_block_scalar str_ops F literal s).
Proof.
  intros s F literal c explicit digit_first hc lines n pz inds Hchars Hun Hhc HFhc Hls Hl0 Hfc Hlen Htext Htb Hind.
  destruct (lines_chunks F n lines Hls Hl0 Hfc Hlen Htext) as [ck [cs [t [Hsp [Hcs [Hcs0 [Htab [_ [_ [_ [Ht4 Hft]]]]]]]]]]].
  assert (Ht : t = []).
  { rewrite Hsp in Htb. destruct (chunks_trailing (ck :: cs) t ltac:(discriminate)) as [Hl _]. rewrite Hl in Htb.
    destruct t; [reflexivity|discriminate]. }
  subst t. cbn [map] in Hsp. rewrite app_nil_r in Hsp. rewrite Hsp in Hchars |- *.
  apply (block_scalar_chunks_eof s F literal c explicit digit_first hc ck cs n pz inds); auto.
  destruct explicit as [d|]; [exact Hind|].
  destruct Hind as [Hpz [txt [Hft' Htx]]]. split; [exact Hpz|].
  specialize (Hft txt Hft'). destruct ck as [[ks e] tx]. destruct Hft as [-> ->]. split; [reflexivity|exact Htx].
Qed.

(* the end of the input without a final line break, in general: right after the last content line (which may be a
   line of more than n spaces), or inside a last line of 1 <= j <= n spaces — an empty line that clip drops and keep
   counts.  (A last line [Blank 0] before the end of the input is not a line: that text is the one with a final
   line break and one line less.) *)
Definition last_line_nonempty (lines : list bline) : Prop :=
  match rev lines with Blank O :: _ => False | _ => True end.

Lemma render_block_eof_blank n literal c explicit digit_first hc lines j :
  wbrk (render_block n literal c explicit digit_first hc (lines ++ [Blank j]) EofNone)
  = wbrk (render_block n literal c explicit digit_first hc lines (EofRest [])) ++ sps j ++ [].
Proof.
  unfold render_block. rewrite flat_map_app. cbn [flat_map render_line app]. rewrite ?app_nil_r.
  replace (header literal c explicit digit_first ++ hc ++ flat_map (fun l => LF :: render_line n l) lines ++ LF :: spaces j)
    with ((header literal c explicit digit_first ++ hc ++ flat_map (fun l => LF :: render_line n l) lines ++ [LF]) ++ sps j)
    by (rewrite <- !app_assoc; reflexivity).
  rewrite wbrk_app, wbrk_sps. reflexivity.
Qed.

Lemma has_text_app l1 l2 : has_text (l1 ++ l2) = has_text l1 || has_text l2.
Proof. apply existsb_app. Qed.

Lemma first_text_app l1 l2 : has_text l1 = true -> first_text (l1 ++ l2) = first_text l1.
Proof.
  induction l1 as [|[e s0|k] l1 IH]; intros H; cbn [app first_text]; [discriminate|reflexivity|].
  apply IH. exact H.
Qed.

Lemma first_char_app n l1 l2 : l1 <> [] -> first_char n (l1 ++ l2) = first_char n l1.
Proof.
  intros Hne. unfold first_char. rewrite flat_map_app. apply hd0_app_ne.
  destruct l1 as [|l l1]; [congruence|]. cbn [flat_map]. destruct (render_line n l); discriminate.
Qed.

Theorem block_scalar_lines_eof : forall (s : sc strin) F literal c (explicit : option nat) (digit_first : bool) (hc : list chr)
    (lines : list bline) (n : nat) pz inds,
  si_chars (sc_in s) = wbrk (render_block n literal c explicit digit_first hc lines EofNone) ->
  unroll_nb (sc_indents s) (sc_indent s) = (pz, inds) ->
  header_tail hc -> (2 * length hc + 2 < F)%nat ->
  Forall (line_ok F n) lines -> Forall (line_col0 n) lines -> (n = O -> first_char n lines <> 9) ->
  (S (length lines) < F)%nat -> has_text lines = true ->
  last_line_nonempty lines ->
  match explicit with
  | Some d => (1 <= d <= 9)%nat /\ N.of_nat n = (if (0 <=? pz)%Z then Z.to_N (pz + Z.of_N (N.of_nat d)) else N.of_nat d)
  | None => Z.to_N (pz + 1) <= N.of_nat n /\ exists txt, first_text lines = Some (O, txt) /\ txt <> []
  end ->
  yields literal (block_value literal c lines) [] (scan_block_scalar str_ops F literal s).
Proof.
  intros s F literal c explicit digit_first hc lines n pz inds Hchars Hun Hhc HFhc Hls Hl0 Hfc Hlen Htext Hlast Hind.
  unfold last_line_nonempty in Hlast.
  destruct (rev lines) as [|l rl] eqn:Erev.
  { apply (f_equal (@rev bline)) in Erev. rewrite rev_involutive in Erev. subst lines. discriminate. }
  apply (f_equal (@rev bline)) in Erev. rewrite rev_involutive in Erev. cbn [rev] in Erev.
  destruct l as [e0 s0|j].
  - (* the last line is a content line *)
    apply (block_scalar_lines_eof_text s F literal c explicit digit_first hc lines n pz inds); auto.
    unfold trailing_blanks. rewrite Erev, rev_app_distr. reflexivity.
  - (* the last line holds j >= 1 spaces *)
    destruct j as [|j']; [contradiction|].
    set (l0 := rev rl) in *. subst lines.
    rewrite has_text_app in Htext. cbn [has_text existsb is_text orb] in Htext. rewrite orb_false_r in Htext.
    assert (Hne0 : l0 <> []) by (destruct l0; [discriminate|discriminate]).
    apply Forall_app in Hls. destruct Hls as [Hls Hlj]. apply Forall_app in Hl0. destruct Hl0 as [Hl0 _].
    pose proof (Forall_inv Hlj) as [Hjn HjF]. cbn beta in Hjn, HjF.
    rewrite render_block_eof_blank in Hchars.
    change [Blank (S j')] with (map Blank (eof_blank (S j') [])).
    apply (block_scalar_lines_gen s F literal c explicit digit_first hc l0 (S j') [] n pz inds); auto.
    + intros Hn0. rewrite <- (first_char_app n l0 [Blank (S j')] Hne0). apply Hfc. exact Hn0.
    + rewrite app_length in Hlen. cbn [length] in Hlen. lia.
    + right. left. split; [reflexivity|exact Hjn].
    + intro H. cbv in H. discriminate H.
    + destruct explicit as [d|]; [exact Hind|]. rewrite first_text_app in Hind by exact Htext. exact Hind.
Qed.

(* scalars without any content line *)
Lemma line_after_blank_lines : forall ks j m,
  m_line (mark_after brk m (blank_lines ks ++ sps j)) = m_line m + N.of_nat (length ks).
Proof.
  induction ks as [|k ks IH]; intros j m.
  - cbn [blank_lines flat_map app length N.of_nat]. rewrite mark_after_spaces. cbn [adv m_line]. lia.
  - cbn [blank_lines flat_map]. fold (blank_lines ks). rewrite <- app_assoc, mark_after_app, mark_after_blank_line, IH.
    rewrite (line_brk brk Hbrk). cbn [adv m_line length]. lia.
Qed.

Lemma block_value_blanks literal c l :
  block_value literal c (map Blank l) = match c with CKeep => lfs (length l) | _ => [] end.
Proof.
  unfold block_value. replace (has_text (map Blank l)) with false.
  - rewrite map_length. reflexivity.
  - induction l; [reflexivity|assumption].
Qed.

(* the lines of a content-less scalar: the blank lines, and the last line when the input ends inside it *)
Definition empty_lines (ks : list nat) (j : nat) (r' : list chr) : list bline :=
  map Blank (ks ++ match r' with [] => (match j with O => [] | S _ => [j] end) | _ => [] end).

Theorem block_scalar_empty : forall (s : sc strin) F literal c (explicit : option nat) (digit_first : bool)
    (hc : list chr) (ks : list nat) (j : nat) (r' : list chr) pz inds,
  si_chars (sc_in s) = header literal c explicit digit_first ++ hc ++ brk ++ blank_lines ks ++ sps j ++ r' ->
  unroll_nb (sc_indents s) (sc_indent s) = (pz, inds) ->
  header_tail hc -> (2 * length hc + 2 < F)%nat ->
  Forall (fun k => (k < F)%nat) (j :: ks) -> (S (length ks) < F)%nat ->
  hd0 r' <> 32 -> is_break (hd0 r') = false -> hd0 (blank_lines ks ++ sps j ++ r') <> 9 ->
  (* the end of the input, a line that belongs to an enclosing collection, or a document marker at column 0 *)
  (r' = [] \/ (hd0 r' <> 0 /\ (Z.of_nat j <= pz)%Z) \/ (j = O /\ doc_ind_b r' = true)) ->
  match explicit with
  | Some d => (1 <= d <= 9)%nat /\
              let n := if (0 <=? pz)%Z then Z.to_N (pz + Z.of_N (N.of_nat d)) else N.of_nat d in
              Forall (fun k => N.of_nat k <= n) (j :: ks)
  | None => True
  end ->
  yields literal (block_value literal c (empty_lines ks j r')) r' (scan_block_scalar str_ops F literal s).
Proof.
  intros s F literal c explicit digit_first hc ks j r' pz inds Hchars Hun Hhc HFhc HF HFl Hr Hrb Htab Hend Hind.
  unfold empty_lines. rewrite block_value_blanks.
  apply (scan_header _ s F literal c explicit digit_first hc (blank_lines ks ++ sps j ++ r') pz inds); auto.
  { apply follow_blank_lines. apply follow_sps. apply (follow_nb brk). exact Hrb. }
  { destruct explicit; tauto. }
  intros lk1 mh Hlk1 Hmh Hline.
  set (s1 := set_indent pz inds s).
  assert (Hs1 : forall cs lk m w, sc_indent (mv s1 cs lk m w) = pz) by reflexivity.
  assert (Hmk : forall cs lk m w, sc_mark (mv s1 cs lk m w) = m) by reflexivity.
  unfold bs_main. pstep ltac:(apply get_mv). rewrite !Hs1.
  set (mend := mark_after brk mh (blank_lines ks ++ sps j)).
  assert (Hcolend : m_col mend = N.of_nat j) by (apply col_after_blank_lines; exact Hmh).
  assert (Hlineend : m_line mend = m_line mh + N.of_nat (length ks)) by apply line_after_blank_lines.
  (* the indentation: at least j, and more than j when the line belongs to an enclosing collection *)
  set (indent := main_indent pz explicit ks j).
  assert (Hji : N.of_nat j <= indent /\ ((Z.of_nat j <= pz)%Z -> N.of_nat j < indent)).
  { subst indent. destruct explicit as [d|]; cbn [main_indent].
    - destruct Hind as [Hd Hks]. split; [exact (Forall_inv Hks)|].
      unfold given_indent. destruct (0 <=? pz)%Z eqn:E; [apply Z.leb_le in E|apply Z.leb_gt in E]; lia.
    - pose proof (maxl_ge ks j). destruct (0 <? pz)%Z; lia. }
  destruct Hji as [Hji Hind2].
  destruct (bs_main_indent explicit ks j r' F pz s1 lk1 mh Hmh Hr) as [lk2 [Hne2 Hib]]; [lia|exact HF| |].
  { destruct explicit as [d|]; [|exact Hrb]. destruct Hind as [Hd Hks].
    split; [exact Hd|]. split; [exact (Forall_inv_tail Hks)|right; exact Hrb]. }
  cbv zeta in Hib. fold indent in Hib. replace (Nat.min j (N.to_nat indent)) with j in Hib by lia.
  rewrite Nat.sub_diag in Hib. change (sps 0 ++ r') with r' in Hib. fold mend in Hib.
  pstep ltac:(exact Hib).
  pstep ltac:(apply next_is_mv). pstep ltac:(apply get_mv). rewrite !Hmk, !Hs1.
  destruct Hend as [->|Hend].
  - (* the end of the input *)
    change (is_z (hd0 [])) with true. cbv match.
    rewrite Hcolend, Hlineend, Hline.
    destruct (N.eqb_spec (m_line (sc_mark s) + 1 + N.of_nat (length ks)) (m_line (sc_mark s))) as [E|_]; [lia|].
    match goal with |- yields _ ?v _ (ret (_, TScalar _ (nls ?k [])) _) => assert (Ev : nls k [] = v) end.
    { rewrite app_length. destruct c; cbn [to_model]; try reflexivity.
      destruct j as [|j]; cbn [length].
      + change (0 <? N.of_nat 0) with false. rewrite N.add_0_r, Nat.add_0_r, nls_repeat, Nat2N.id, app_nil_r. reflexivity.
      + destruct (N.ltb_spec 0 (N.of_nat (S j))) as [_|Hbad]; [|lia].
        rewrite nls_repeat, app_nil_r. unfold lfs. f_equal. lia. }
    rewrite Ev. unfold yields. eexists. eexists. split; reflexivity.
  - assert (Hnz : hd0 r' <> 0).
    { destruct Hend as [[H _]|[_ H]]; [exact H|]. apply doc_ind_not_z in H. intro E. rewrite E in H. discriminate H. }
    assert (Hz : is_z (hd0 r') = false) by (apply N.eqb_neq; exact Hnz).
    rewrite Hz. cbv match.
    assert (Hne : r' <> []) by (intros ->; apply Hnz; reflexivity).
    rewrite Hcolend.
    (* the wrong-indentation test: a document marker at column 0 passes it *)
    match goal with |- yields _ _ _ (bind ?wr ?k ?st) =>
      assert (Hwr : exists lk3, lk3 <> O /\ wr st = Ok (false, mv s1 r' lk3 mend true)) end.
    { destruct Hend as [[_ Hjp]|[Hj0 Hde]].
      - exists lk2. split; [exact Hne2|].
        destruct (Z.ltb_spec pz (Z.of_N (N.of_nat j))) as [Hbad|_]; [lia|]. rewrite andb_false_r. reflexivity.
      - subst j. destruct ((N.of_nat 0 <? indent) && (pz <? Z.of_N (N.of_nat 0))%Z).
        + exists (Nat.max lk2 4). split; [lia|].
          mstep ltac:(apply look_mv). mstep ltac:(apply next_is_document_indicator_mv; lia). rewrite Hde. reflexivity.
        + exists lk2. split; [exact Hne2|reflexivity]. }
    destruct Hwr as [lk3 [Hne3 Hwr]]. pstep ltac:(exact Hwr).
    pstep ltac:(apply get_mv). rewrite !Hmk.
    destruct F as [|F']; [lia|].
    destruct (bs_loop_exit (S F') literal indent F' [] 0 (N.of_nat (length ks)) false s1 r' lk3 mend true) as [lk4 [_ Hloop]].
    { rewrite Hcolend. destruct Hend as [[_ Hjp]|[-> Hde]]; [left; specialize (Hind2 Hjp); lia|].
      destruct (N.eq_dec indent 0) as [E0|E0]; [right; right; split; [exact E0|exact Hde]|left].
      intro E. apply E0. symmetry. exact E. }
    pstep ltac:(exact Hloop).
    unfold bs_finish.
    pstep ltac:(apply next_is_mv). pstep ltac:(apply col_mv). pstep ltac:(apply mark_mv).
    rewrite Hz. change (0 =? 0) with true. cbn [andb negb].
    match goal with |- yields _ ?v _ (ret (_, TScalar _ (rev ?a)) _) => assert (Ev : rev a = v) end.
    { destruct r' as [|c0 r0]; [congruence|]. rewrite app_nil_r.
      destruct c; cbn [to_model]; try reflexivity.
      rewrite nls_of_nat. reflexivity. }
    rewrite Ev. unfold yields. eexists. eexists. split; reflexivity.
Qed.

(* the input ends on the header line: "|", ">2-  # c" <eof> — the empty scalar *)
Lemma sbsi_eof : forall F fuel indent breaks s lk m w, (0 < F)%nat -> (0 < fuel)%nat ->
  exists lk', lk' <> O /\
  skip_block_scalar_indent str_ops F fuel indent breaks (mv s [] lk m w) = Ok (breaks, mv s [] lk' m w).
Proof.
  intros F fuel indent breaks s lk m w HF Hfuel. destruct fuel as [|fuel]; [lia|]. rewrite sbsi_eq.
  change (Nat.ltb (bufmaxlen str_ops) 2) with false. cbv iota.
  assert (Hnil : hd0 (@nil chr) <> 32) by discriminate.
  assert (Hss : forall cb lk0, (cb = true -> lk0 <> O) ->
            skip_spaces_to str_ops F indent cb (mv s [] lk0 m w) = Ok (tt, mv s [] lk0 m w)).
  { intros cb lk0 Hcb. pose proof (skip_spaces_to_spec 0 [] F indent cb s lk0 m w 0 Hnil HF Hcb eq_refl) as Hs.
    rewrite adv_0 in Hs. exact Hs. }
  assert (Hsp : exists lk', lk' <> O /\ bs_spp str_ops F indent (mv s [] lk m w) = Ok (tt, mv s [] lk' m w)).
  { unfold bs_spp. change (bufmaxlen str_ops) with 128%nat. destruct (indent <? N.of_nat (128 - 2)).
    - exists (Nat.max lk 128). split; [lia|]. mstep ltac:(apply look_mv). apply Hss. discriminate.
    - exists (Nat.max (Nat.max lk 128) 2). split; [lia|]. destruct F as [|F']; [lia|]. cbn [bs_wide].
      change (bufmaxlen str_ops) with 128%nat.
      mstep ltac:(mstep ltac:(apply look_mv); mstep ltac:(apply Hss; lia);
                  mstep ltac:(apply col_mv); mstep ltac:(apply buf_is_empty_mv);
                  destruct (Nat.eqb_spec (Nat.max lk 128) 0) as [E|_]; [lia|]; cbv iota;
                  mstep ltac:(apply peek_mv); cbn [negb andb]; rewrite orb_true_r; reflexivity).
      apply look_mv. }
  destruct Hsp as [lk' [Hne Hsp]]. exists lk'. split; [exact Hne|].
  mstep ltac:(reflexivity). mstep ltac:(exact Hsp). mstep ltac:(apply next_is_mv). reflexivity.
Qed.

Theorem block_scalar_header_eof : forall (s : sc strin) F literal c (explicit : option nat) (digit_first : bool) (hc : list chr) pz inds,
  si_chars (sc_in s) = header literal c explicit digit_first ++ hc ->
  unroll_nb (sc_indents s) (sc_indent s) = (pz, inds) ->
  header_tail hc -> (2 * length hc + 2 < F)%nat ->
  match explicit with Some d => (1 <= d <= 9)%nat | None => True end ->
  yields literal [] [] (scan_block_scalar str_ops F literal s).
Proof.
  intros s F literal c explicit digit_first hc pz inds Hchars Hun Hhc HFhc Hd.
  apply (scan_header_line _ s F literal c explicit digit_first hc [] pz inds); auto.
  { rewrite app_nil_r. exact Hchars. }
  intros lk1 mh w1 Hlk1 Hline.
  set (s1 := set_indent pz inds s).
  assert (Hmk : forall cs lk m w, sc_mark (mv s1 cs lk m w) = m) by reflexivity.
  change (is_break (hd0 [])) with false. cbv match.
  pstep ltac:(reflexivity). pstep ltac:(apply look_ch_mv). change (hd0 [] =? 9) with false. cbv match.
  unfold bs_main. pstep ltac:(apply get_mv).
  assert (HF0 : (0 < F)%nat) by lia.
  match goal with |- yields _ _ _ (bind ?ib ?k ?st) =>
    assert (Hib : exists lk2 r, ib st = Ok (r, mv s1 [] lk2 mh w1))
  end.
  { unfold bs_indent. match goal with |- context [if ?x =? 0 then _ else _] => destruct (x =? 0) end.
    - destruct F as [|F']; [lia|]. rewrite sfli_eq.
      eexists. eexists.
      mstep ltac:(mstep ltac:(apply (bs_sfl_spec 0 [] (S F') s1 (Nat.max lk1 1) mh w1); [discriminate|lia]);
                  rewrite adv_0; mstep ltac:(apply col_mv); mstep ltac:(apply next_is_mv); reflexivity).
      reflexivity.
    - match goal with |- context [skip_block_scalar_indent str_ops F F ?i 0] =>
        destruct (sbsi_eof F F i 0 s1 (Nat.max lk1 1) mh w1 HF0 HF0) as [lk2 [_ Hs]] end.
      eexists. eexists. mstep ltac:(exact Hs). reflexivity. }
  destruct Hib as [lk2 [[indent tbreaks] Hib]].
  pstep ltac:(exact Hib).
  pstep ltac:(apply next_is_mv). pstep ltac:(apply get_mv). rewrite !Hmk.
  change (is_z (hd0 [])) with true. cbv match. rewrite Hline, N.eqb_refl.
  unfold yields. eexists. eexists. split; [destruct c; reflexivity|reflexivity].
Qed.

End Brk.

(* the three break styles of the specification ([with_breaks]: 0 = LF, 1 = CR LF, 2 = CR) *)
Definition kbrk (k : N) : list chr := if k =? 1 then [13; 10] else if k =? 2 then [13] else [10].
Lemma kbrk_style k : break_style (kbrk k).
Proof. unfold kbrk, break_style. destruct (k =? 1); [right; left; reflexivity|]. destruct (k =? 2); [right; right|left]; reflexivity. Qed.
Lemma with_breaks_wbrk k t : with_breaks k t = wbrk (kbrk k) t.
Proof. reflexivity. Qed.
Lemma with_breaks_lf t : with_breaks 0 t = t.
Proof. induction t as [|c t IH]; [reflexivity|]. unfold with_breaks in *. cbn [flat_map]. rewrite IH. destruct (c =? 10) eqn:E; [apply N.eqb_eq in E; subst|]; reflexivity. Qed.

(* T4 for every break style: the text is the rendering of the specification with its line feeds replaced *)
Theorem block_scalar_lines_k : forall k (s : sc strin) F literal c (explicit : option nat) (digit_first : bool) (hc : list chr)
    (lines : list bline) (j : nat) (r' : list chr) (n : nat) pz inds,
  si_chars (sc_in s) = with_breaks k (render_block n literal c explicit digit_first hc lines (EofRest [])) ++ sps j ++ r' ->
  unroll_nb (sc_indents s) (sc_indent s) = (pz, inds) ->
  header_tail hc -> (2 * length hc + 2 < F)%nat ->
  Forall (line_ok F n) lines -> Forall (line_col0 n) lines -> (n = O -> first_char n lines <> 9) ->
  (S (length lines) < F)%nat -> has_text lines = true ->
  ends_after n j r' -> hd0 r' <> 32 -> is_break (hd0 r') = false -> (r' = [] -> j = O) -> (r' <> [] -> hd0 r' <> 0) ->
  match explicit with
  | Some d => (1 <= d <= 9)%nat /\ N.of_nat n = (if (0 <=? pz)%Z then Z.to_N (pz + Z.of_N (N.of_nat d)) else N.of_nat d)
  | None => Z.to_N (pz + 1) <= N.of_nat n /\ exists txt, first_text lines = Some (O, txt) /\ txt <> []
  end ->
  yields literal (block_value literal c lines) r' (scan_block_scalar str_ops F literal s).
Proof. intros k. exact (block_scalar_lines (kbrk k) (kbrk_style k)). Qed.

Theorem block_scalar_lines_eof_k : forall k (s : sc strin) F literal c (explicit : option nat) (digit_first : bool) (hc : list chr)
    (lines : list bline) (n : nat) pz inds,
  si_chars (sc_in s) = with_breaks k (render_block n literal c explicit digit_first hc lines EofNone) ->
  unroll_nb (sc_indents s) (sc_indent s) = (pz, inds) ->
  header_tail hc -> (2 * length hc + 2 < F)%nat ->
  Forall (line_ok F n) lines -> Forall (line_col0 n) lines -> (n = O -> first_char n lines <> 9) ->
  (S (length lines) < F)%nat -> has_text lines = true ->
  last_line_nonempty lines ->
  match explicit with
  | Some d => (1 <= d <= 9)%nat /\ N.of_nat n = (if (0 <=? pz)%Z then Z.to_N (pz + Z.of_N (N.of_nat d)) else N.of_nat d)
  | None => Z.to_N (pz + 1) <= N.of_nat n /\ exists txt, first_text lines = Some (O, txt) /\ txt <> []
  end ->
  yields literal (block_value literal c lines) [] (scan_block_scalar str_ops F literal s).
Proof. intros k. exact (block_scalar_lines_eof (kbrk k) (kbrk_style k)). Qed.

Theorem block_scalar_empty_k : forall k (s : sc strin) F literal c (explicit : option nat) (digit_first : bool)
    (hc : list chr) (ks : list nat) (j : nat) (r' : list chr) pz inds,
  si_chars (sc_in s) = header literal c explicit digit_first ++ hc ++ kbrk k ++ blank_lines (kbrk k) ks ++ sps j ++ r' ->
  unroll_nb (sc_indents s) (sc_indent s) = (pz, inds) ->
  header_tail hc -> (2 * length hc + 2 < F)%nat ->
  Forall (fun k => (k < F)%nat) (j :: ks) -> (S (length ks) < F)%nat ->
  hd0 r' <> 32 -> is_break (hd0 r') = false -> hd0 (blank_lines (kbrk k) ks ++ sps j ++ r') <> 9 ->
  (r' = [] \/ (hd0 r' <> 0 /\ (Z.of_nat j <= pz)%Z) \/ (j = O /\ doc_ind_b r' = true)) ->
  match explicit with
  | Some d => (1 <= d <= 9)%nat /\
              let n := if (0 <=? pz)%Z then Z.to_N (pz + Z.of_N (N.of_nat d)) else N.of_nat d in
              Forall (fun k => N.of_nat k <= n) (j :: ks)
  | None => True
  end ->
  yields literal (block_value literal c (empty_lines ks j r')) r' (scan_block_scalar str_ops F literal s).
Proof. intros k. exact (block_scalar_empty (kbrk k) (kbrk_style k)). Qed.

(* Part 5: the complete statement, examples on the whole pipeline, refutation witnesses *)
Require Import SFetch Pipe SBuf Drivers.
From Coq Require Import String.
Local Open Scope N_scope.
Local Open Scope list_scope.

(* the block scalars among the events of a run, and whether the run ended without an error *)
Definition block_scalars (r : list (event * span) * pend) : list (style * list N) * bool :=
  (flat_map (fun ev => match fst ev with
                       | EScalar v Literal _ _ => [(Literal, v)]
                       | EScalar v Folded _ _ => [(Folded, v)]
                       | _ => []
                       end) (fst r),
   match snd r with PDone => true | _ => false end).

Definition case_style (b : bcase) : style := if bc_literal b then Literal else Folded.
Definition expected (b : bcase) : list (style * list N) * bool := ([(case_style b, case_value b)], true).

(* a case of the specification on which the model pipeline (string input and buffered inputs of capacity 8 and 16)
   delivers exactly the specified scalar *)
Definition agrees (b : bcase) : Prop :=
  case_ok b = true /\
  block_scalars (run_str (case_text b)) = expected b /\
  block_scalars (run_buf 8 (case_text b)) = expected b /\
  block_scalars (run_buf 16 (case_text b)) = expected b.

Definition mkcase (literal : bool) (c : chomp) (explicit : option nat) (parent : option nat) (prefix hc : list N)
           (raw : list rline) (eof : eof_shape) : bcase :=
  {| bc_literal := literal; bc_chomp := c; bc_explicit := explicit; bc_digit_first := false; bc_parent := parent;
     bc_prefix := prefix; bc_hc := hc; bc_raw := raw; bc_eof := eof; bc_brk := 0 |}.

(* contexts: the text in front of the indicator and the indentation of the parent collection *)
Inductive outer : list N -> nat -> Prop :=
| outer_top p : outer (spaces p) p                                                   (* a collection at column p *)
| outer_map pre p q : outer pre p -> (p < q)%nat -> outer (pre ++ L "k:/" ++ spaces q) q   (* value on the next line *)
| outer_seq_line pre p q : outer pre p -> (p < q)%nat -> outer (pre ++ L "-/" ++ spaces q) q
| outer_seq_inline pre p : outer pre p -> outer (pre ++ L "- ") (p + 2).
Inductive ctx : option nat -> list N -> Prop :=
| ctx_bare : ctx None []
| ctx_doc : ctx None (L "--- ")
| ctx_map pre p : outer pre p -> ctx (Some p) (pre ++ L "k: ")
| ctx_seq pre p : outer pre p -> ctx (Some p) (pre ++ L "- ").

Definition first_block_scalar (toks : list token) : option (style * list N) :=
  hd_error (flat_map (fun t => match snd t with
                               | TScalar Literal v => [(Literal, v)]
                               | TScalar Folded v => [(Folded, v)]
                               | _ => []
                               end) toks).
Definition scan_buf (cap : nat) (s : list N) : list token * scan_end :=
  let F := (2 * List.length s + 10)%nat in
  scan_all (buf_ops cap) F (4 * F + 20) (init_sc {| b_buf := []; b_rest := s |}) [].

(* The complete statement of C05 on the model: every case of the specification (all line lists, both styles, every
   chomping, explicit / auto-detected indentation, header comment, every end shape, every line-break style) in every
   context, on the string input and on every buffered input (the wide-indent path included), scans to the
   specified scalar. *)
Definition C05_full : Prop :=
  forall b, case_ok b = true -> ctx (bc_parent b) (bc_prefix b) ->
    first_block_scalar (fst (scan_str (case_text b))) = Some (case_style b, case_value b) /\
    forall cap, (8 <= cap)%nat -> first_block_scalar (fst (scan_buf cap (case_text b))) = Some (case_style b, case_value b).

(* It does not hold of the faithful model.  One class of inputs is left (known_findings_c05.jsonl,
   top-level-column-0-content-starts-with-tab): a top-level scalar with auto-detected indentation whose first line
   starts with a tab at column 0.  The content indentation is 0 and the tab is content (l-nb-literal-text(0) = s-indent(0)
   nb-char+), but scan_block_scalar rejects a tab right behind the header line break before it knows the indentation
   ("a block scalar content cannot start with a tab").  The same line one line further down is accepted. *)
Definition witness_tab : bcase := mkcase true CClip None None [] [] [(O, [9; 120])] EofNewline.

Lemma witness_tab_fails :
  case_ok witness_tab = true /\ case_text witness_tab = [124; 10; 9; 120; 10] /\ case_value witness_tab = [9; 120; 10] /\
  first_block_scalar (fst (scan_str (case_text witness_tab))) = None /\
  (exists m, snd (scan_str (case_text witness_tab)) = SError 82 m).
Proof. vm_compute. repeat split. eexists. reflexivity. Qed.

(* one line further down the same content is accepted: "|\n\n\tx\n" *)
Definition witness_tab_second_line : bcase := mkcase true CClip None None [] [] [(O, []); (O, [9; 120])] EofNewline.
Lemma witness_tab_second_line_ok : agrees witness_tab_second_line /\ case_value witness_tab_second_line = [10; 9; 120; 10].
Proof. vm_compute. repeat split. Qed.

Lemma C05_full_is_refuted : ~ C05_full.
Proof.
  intros H. destruct (H witness_tab eq_refl ctx_bare) as [H1 _].
  destruct witness_tab_fails as [_ [_ [_ [H2 _]]]]. rewrite H2 in H1. discriminate H1.
Qed.

(* The witnesses of the three classes that refuted [C05_full] before the repairs 42046c7 and 001a921 of /repo: the
   model pipeline now delivers the specified value on them (string input, buffered inputs of capacity 8 and 16). *)
Definition former_witness_clip_eof : bcase := mkcase true CClip None None [] [] [R 1 "a"; R 1 ""] EofNone.
Definition former_witness_keep_eof : bcase := mkcase true CKeep None (Some O) (L "k: ") [] [R 2 "a"; R 1 ""] EofNone.
Definition former_witness_doc_start : bcase := mkcase true CClip None None [] [] [R 0 "a"] (EofRest (L "---/b/")).

Lemma former_witness_clip_eof_ok :
  agrees former_witness_clip_eof /\ case_text former_witness_clip_eof = L "|/ a/ " /\ case_value former_witness_clip_eof = L "a/".
Proof. vm_compute. repeat split. Qed.
Lemma former_witness_keep_eof_ok :
  agrees former_witness_keep_eof /\ case_text former_witness_keep_eof = L "k: |+/  a/ " /\ case_value former_witness_keep_eof = L "a//".
Proof. vm_compute. repeat split. Qed.
Lemma former_witness_doc_start_ok :
  agrees former_witness_doc_start /\ case_text former_witness_doc_start = L "|/a/---/b/" /\ case_value former_witness_doc_start = L "a/".
Proof. vm_compute. repeat split. Qed.
