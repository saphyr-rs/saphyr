(* C15 / C11 / C06 — the scanner's flow level is EXACTLY the bracket depth of the token stream it produces, for every
   input (any Input back-end, any fuel), unless that stream is already beyond repair:

   Invariant [Q] over (tokens delivered ++ tokens queued) =: L, carried through every function of the scanner model:
     (Exact)  zs L = flow_level + #(ImInside entries of sc_ifms)     [zs: +1 at every FlowSequenceStart / FlowMappingStart
                                                                      token, synthetic or not, -1 at every End token, in Z]
              and |sc_ifms| = flow_level;
     (Dead)   or some prefix of L of length P has a NEGATIVE sum, and every possible simple key is saved at a position >= P
              - decrease_flow_level saturates at 0: a ']' / '}' at flow level 0 is queued without lowering the level; at
              that moment the only simple-key slot has been cleared by remove_simple_key, the token is the last of L, and
              tokens are INSERTED into the queue only at the position of a possible simple key: the prefix never changes;
     (Pend)   between that decrease_flow_level and the push of its token.
   DepthScan.v's [G] is the inequality "<="; its frame lemmas [neu_*] allow the insertion of End tokens and cannot be
   reused for an equation, so the walk over Model/SFetch.v is redone here on the pattern of DepthNest.v ([Tr], [Keepk],
   [Fr] from DocScan.v / ScanFrame.v; the character-level scanners are frames).

     scan_flow_exact             a scan that ends properly ends in a state with [QV] over the tokens delivered
     balanced_flow_level_zero    ... hence: if the delivered tokens are bracket-balanced (C06's [flow_balanced]), the flow
                                 level at the end is 0 *)
From Coq Require Import List NArith ZArith Bool Lia PeanoNat.
Import ListNotations.
Require Import Parser SBase SPrim SDir SScalar SFetch Drivers Depth DepthTok ScanFrame DocScan ScanLeaf DepthNest LazyScan.
Require RejectProofs DispatchTie.
Local Open Scope nat_scope.

(* 1. pure facts *)
Definition wk_tok (k : tok) : Z :=
  match k with
  | TFlowSequenceStart | TFlowMappingStart => 1
  | TFlowSequenceEnd | TFlowMappingEnd => -1
  | _ => 0
  end%Z.
Definition wt (t : token) : Z := wk_tok (snd t).
Fixpoint zs (l : list token) : Z := match l with [] => 0%Z | t :: r => (wt t + zs r)%Z end.
Lemma zs_app a b : zs (a ++ b) = (zs a + zs b)%Z.
Proof. induction a as [|x a IH]; cbn [zs app]; [reflexivity|rewrite IH; lia]. Qed.
Lemma firstn_pre {A} P (a b : list A) : P <= length a -> firstn P (a ++ b) = firstn P a.
Proof. intros H. rewrite firstn_app. replace (P - length a) with 0 by lia. cbn [firstn]. apply app_nil_r. Qed.

Definition kge (P : nat) (sks : list simple_key) : Prop := Forall (fun k => sk_possible k = true -> P <= kpos k) sks.
Lemma wk_kge P sks sks' : wk sks sks' -> kge P sks -> kge P sks'.
Proof.
  induction 1 as [|k k' r r' [H1 H2] _ IH]; intros H; [constructor|]. inversion H as [|x y Hk Hr]; subst.
  constructor; [intros Hp; rewrite H1; apply Hk, H2, Hp|exact (IH Hr)].
Qed.
Lemma wk_allclr sks sks' : wk sks sks' -> allclr sks -> allclr sks'.
Proof.
  induction 1 as [|k k' r r' [H1 H2] _ IH]; intros H; [constructor|]. inversion H as [|x y Hk Hr]; subst.
  constructor; [|exact (IH Hr)]. destruct (sk_possible k') eqn:E; [|reflexivity]. rewrite (H2 eq_refl) in Hk. discriminate.
Qed.
Lemma allclr_kge P sks : allclr sks -> kge P sks.
Proof. intros H. eapply Forall_impl; [|exact H]. cbn beta. intros k Hk Hp. rewrite Hk in Hp. discriminate. Qed.

Definition QV (d e : Z) (L : list token) (sks : list simple_key) (fl : N) (ifms : list ims) : Prop :=
  (Z.of_nat (length ifms) = Z.of_N fl + e /\ zs L = Z.of_N fl + Z.of_nat (ni ifms) + d)%Z
  \/ (exists P, P <= length L /\ (zs (firstn P L) < 0)%Z /\ kge P sks)
  \/ (d = 1%Z /\ fl = 0%N /\ ifms = [] /\ zs L = 0%Z /\ allclr sks).

(* a token pushed at the end *)
Lemma QV_push t d e L sks fl ifms :
  QV d e L sks fl ifms -> (d = 1%Z -> wt t = 0%Z \/ wt t = (-1)%Z) -> QV (d + wt t) e (L ++ [t]) sks fl ifms.
Proof.
  intros [[H1 H2]|[(P & HP & HZ & HK)|(Hd & Hf & Hi & HZ & HC)]] Hw.
  - left. split; [exact H1|]. rewrite zs_app. cbn [zs]. lia.
  - right; left. exists P. rewrite app_length, firstn_pre by exact HP. cbn [length]. repeat split; [lia|exact HZ|exact HK].
  - destruct (Hw Hd) as [W|W].
    + right; right. rewrite zs_app. cbn [zs]. rewrite W. repeat split; auto; lia.
    + right; left. exists (length (L ++ [t])). split; [lia|]. rewrite firstn_all, zs_app. cbn [zs]. split; [lia|].
      apply allclr_kge. exact HC.
Qed.
Lemma QV_push_plain t d e L sks fl ifms : wt t = 0%Z -> QV d e L sks fl ifms -> QV d e (L ++ [t]) sks fl ifms.
Proof. intros W H. replace d with (d + wt t)%Z at 1 by lia. apply QV_push; [exact H|auto]. Qed.
Lemma QV_push_open t e L sks fl ifms : wt t = 1%Z -> QV (-1) e L sks fl ifms -> QV 0 e (L ++ [t]) sks fl ifms.
Proof. intros W H. replace 0%Z with (-1 + wt t)%Z by lia. apply QV_push; [exact H|lia]. Qed.
Lemma QV_push_close t e L sks fl ifms : wt t = (-1)%Z -> QV 1 e L sks fl ifms -> QV 0 e (L ++ [t]) sks fl ifms.
Proof. intros W H. replace 0%Z with (1 + wt t)%Z by lia. apply QV_push; [exact H|auto]. Qed.

(* a token inserted at the position of a possible simple key *)
Lemma QV_insert t d e a b sks fl ifms k :
  In k sks -> sk_possible k = true -> kpos k = length a ->
  QV d e (a ++ b) sks fl ifms -> QV (d + wt t) e (a ++ t :: b) sks fl ifms.
Proof.
  intros Hin Hp Hk [[H1 H2]|[(P & HP & HZ & HK)|(Hd & Hf & Hi & HZ & HC)]].
  - left. split; [exact H1|]. rewrite zs_app in *. cbn [zs]. lia.
  - right; left. exists P. assert (PL : P <= length a).
    { unfold kge in HK. rewrite Forall_forall in HK. specialize (HK k Hin Hp). lia. }
    rewrite firstn_pre in * by exact PL. rewrite app_length in *. cbn [length]. repeat split; [lia|exact HZ|exact HK].
  - exfalso. unfold allclr in HC. rewrite Forall_forall in HC. rewrite (HC k Hin) in Hp. discriminate.
Qed.

(* the key stack *)
Lemma QV_sks d e L sks sks' fl ifms : wk sks sks' -> QV d e L sks fl ifms -> QV d e L sks' fl ifms.
Proof.
  intros W [H|[(P & HP & HZ & HK)|(Hd & Hf & Hi & HZ & HC)]]; [left; exact H| |].
  - right; left. exists P. repeat split; auto. eapply wk_kge; eauto.
  - right; right. repeat split; auto. eapply wk_allclr; eauto.
Qed.
Lemma QV_sks_gen d e L sks sks' fl ifms : (d <> 1)%Z -> (forall P, P <= length L -> kge P sks -> kge P sks') ->
  QV d e L sks fl ifms -> QV d e L sks' fl ifms.
Proof.
  intros Hd W [H|[(P & HP & HZ & HK)|(Hd' & _)]]; [left; exact H| |lia].
  right; left. exists P. repeat split; auto.
Qed.

(* flow level and implicit-mapping stack *)
Lemma QV_state d e L sks fl ifms d' e' fl' ifms' :
  QV d e L sks fl ifms -> (d = 1%Z -> ifms <> []) ->
  (Z.of_nat (length ifms) = Z.of_N fl + e -> Z.of_nat (length ifms') = Z.of_N fl' + e')%Z ->
  (Z.of_nat (length ifms) = Z.of_N fl + e -> Z.of_N fl' + Z.of_nat (ni ifms') + d' = Z.of_N fl + Z.of_nat (ni ifms) + d)%Z ->
  QV d' e' L sks fl' ifms'.
Proof.
  intros [[H1 H2]|[H|(Hd & Hf & Hi & _)]] Hn HL HS.
  - left. split; [auto|]. specialize (HS H1). rewrite HS. exact H2.
  - right; left. exact H.
  - exfalso. exact (Hn Hd Hi).
Qed.

(* bracket-balanced token lists *)
Definition nse (t : token) : Prop := snd t <> TStreamEnd.
Lemma balanced_zs sp : forall t stk, Forall nse t -> RejectProofs.flow_balanced (t ++ [(sp, TStreamEnd)]) stk = true ->
  (zs t + Z.of_nat (length stk) = 0)%Z /\ forall P, (0 <= zs (firstn P t) + Z.of_nat (length stk))%Z.
Proof.
  induction t as [|[s k] r IH]; intros stk HN HB.
  - cbn [app RejectProofs.flow_balanced] in HB. destruct stk; [|discriminate]. cbn [zs length]. split; [reflexivity|].
    intros P. rewrite firstn_nil. cbn [zs]. lia.
  - inversion HN as [|x y Hk Hr]; subst. unfold nse in Hk. cbn [snd] in Hk.
    cbn [app RejectProofs.flow_balanced] in HB.
    assert (G : forall stk', RejectProofs.flow_balanced (r ++ [(sp, TStreamEnd)]) stk' = true ->
                (Z.of_nat (length stk') = Z.of_nat (length stk) + wk_tok k)%Z ->
                (zs ((s, k) :: r) + Z.of_nat (length stk) = 0)%Z
                /\ forall P, (0 <= zs (firstn P ((s, k) :: r)) + Z.of_nat (length stk))%Z).
    { intros stk' HB' HW. destruct (IH stk' Hr HB') as [I1 I2]. cbn [zs]. unfold wt. cbn [snd].
      clear HB IH HB' HN Hk Hr. split; [lia|].
      intros [|P]; cbn [firstn zs]; [lia|]. unfold wt. cbn [snd]. specialize (I2 P). unfold token in *. lia. }
    destruct k; try (apply (G stk HB); cbn [wk_tok]; lia); try congruence.
    + apply (G (true :: stk) HB). cbn [wk_tok length]. lia.
    + destruct stk as [|[|] stk']; try discriminate. apply (G stk' HB). cbn [wk_tok length]. lia.
    + apply (G (false :: stk) HB). cbn [wk_tok length]. lia.
    + destruct stk as [|[|] stk']; try discriminate. apply (G stk' HB). cbn [wk_tok length]. lia.
Qed.

(* 2. the invariant over scanner states, and the judgment *)
Section Scan.
Context {I : Type} (ops : InputOps I).
Notation M := (@M I).
Notation st := (sc I).

Definition Q (pre : list token) (d e : Z) (s : st) : Prop :=
  length pre = N.to_nat (sc_tokens_parsed s)
  /\ QV d e (pre ++ sc_tokens s) (sc_sks s) (sc_flow_level s) (sc_ifms s).
Definition QB (pre : list token) (d e : Z) (s : st) : Prop := SkB s /\ Q pre d e s.
Definition kq {A} (m : M A) (d e d' e' : Z) : Prop :=
  forall pre, Tr (QB pre d e) m (fun _ => QB pre d' e').

Lemma kq_bind {A B} (m : M A) (f : A -> M B) d1 e1 d2 e2 d3 e3 :
  kq m d1 e1 d2 e2 -> (forall a, kq (f a) d2 e2 d3 e3) -> kq (bind m f) d1 e1 d3 e3.
Proof. intros Hm Hf pre. eapply Tr_bind; [apply Hm|intros a; apply Hf]. Qed.
Lemma kq_fail {A} x mk d e d' e' : kq (@fail I A x mk) d e d' e'.
Proof. intros pre s a s' _ E. discriminate. Qed.
Lemma kq_panic {A} n d e d' e' : kq (@panic I A n) d e d' e'.
Proof. intros pre s a s' _ E. discriminate. Qed.
Lemma kq_oof {A} d e d' e' : kq (@oof I A) d e d' e'.
Proof. intros pre s a s' _ E. discriminate. Qed.

Lemma kq_intro {A} (m : M A) d e d' e' :
  Keepk m -> (forall pre s a s', m s = Ok (a, s') -> SkB s -> Q pre d e s -> Q pre d' e' s') -> kq m d e d' e'.
Proof. intros HK HJ pre s a s' [HB H] E. split; [apply (HK _ _ _ HB E)|eapply HJ; eauto]. Qed.

Lemma Q_view pre d e (s s' : st) :
  sc_tokens s' = sc_tokens s -> sc_tokens_parsed s' = sc_tokens_parsed s -> sc_sks s' = sc_sks s ->
  sc_flow_level s' = sc_flow_level s -> sc_ifms s' = sc_ifms s ->
  Q pre d e s -> Q pre d e s'.
Proof. intros E1 E2 E3 E4 E5. unfold Q. rewrite E1, E2, E3, E4, E5. auto. Qed.

Lemma Q_frame pre d e (s s' : st) : frame s s' -> Q pre d e s -> Q pre d e s'.
Proof. intros (F1 & F2 & F3 & F4 & F5 & _) HJ. eapply Q_view; [..|exact HJ]; auto. Qed.

Lemma kq_Fr {A} (m : M A) d e : Fr m -> kq m d e d e.
Proof.
  intros HF. apply kq_intro; [apply Keepk_of_Fr; exact HF|].
  intros pre s a s' E _ HJ. eapply Q_frame; [eapply HF; exact E|exact HJ].
Qed.

Lemma kq_modify_view (f : st -> st) d e :
  (forall s, vsame s (f s) /\ sc_tokens (f s) = sc_tokens s /\ sc_tokens_parsed (f s) = sc_tokens_parsed s) ->
  kq (modify f) d e d e.
Proof.
  intros Hf. apply kq_intro; [apply Keepk_modify; intros s; apply Hf|].
  intros pre s a s' E _ HJ. inversion E; subst. destruct (Hf s) as ((V1 & V2 & V3 & V4 & V5 & V6) & T1 & T2).
  eapply Q_view; [..|exact HJ]; auto.
Qed.
Lemma kq_allow d e : kq (@allow_simple_key I) d e d e.
Proof. apply kq_modify_view. intros s. unfold vsame; cbn. auto 10. Qed.
Lemma kq_disallow d e : kq (@disallow_simple_key I) d e d e.
Proof. apply kq_modify_view. intros s. unfold vsame; cbn. auto 10. Qed.

Ltac vw := cbn [sc_tokens sc_tokens_parsed sc_sks sc_indents sc_indent sc_flow_level sc_ifms sc_stream_start sc_mark sc_ska
                 set_tokens set_sks set_indent set_fl set_tp set_ifms set_struct set_flags set_ta set_se set_ska set_ss set_adj
                 set_lws set_in set_mark upd].
Ltac vwin H := cbn [sc_tokens sc_tokens_parsed sc_sks sc_indents sc_indent sc_flow_level sc_ifms sc_stream_start sc_mark sc_ska
                 set_tokens set_sks set_indent set_fl set_tp set_ifms set_struct set_flags set_ta set_se set_ska set_ss set_adj
                 set_lws set_in set_mark upd] in H.

(* tokens pushed at the end of the queue *)
Lemma kq_push_plain t d e : wt t = 0%Z -> kq (@push_tok I t) d e d e.
Proof.
  intros Ht. apply kq_intro; [apply Keepk_push_tok|]. intros pre s a s' E _ [J0 HJ].
  unfold push_tok, modify in E. inversion E; subst. split; [exact J0|]. vw. rewrite app_assoc.
  apply QV_push_plain; assumption.
Qed.
Lemma kq_push_close t e : wt t = (-1)%Z -> kq (@push_tok I t) 1 e 0 e.
Proof.
  intros Ht. apply kq_intro; [apply Keepk_push_tok|]. intros pre s a s' E _ [J0 HJ].
  unfold push_tok, modify in E. inversion E; subst. split; [exact J0|]. vw. rewrite app_assoc.
  apply QV_push_close; assumption.
Qed.
Lemma kq_push_open t e : wt t = 1%Z -> kq (@push_tok I t) (-1) e 0 e.
Proof.
  intros Ht. apply kq_intro; [apply Keepk_push_tok|]. intros pre s a s' E _ [J0 HJ].
  unfold push_tok, modify in E. inversion E; subst. split; [exact J0|]. vw. rewrite app_assoc.
  apply QV_push_open; assumption.
Qed.

(* simple keys *)
Lemma kq_save_simple_key : kq (@save_simple_key I) 0 0 0 0.
Proof.
  apply kq_intro; [apply Keepk_save_simple_key|]. intros pre s a s' E HB HJ.
  destruct (save_simple_key_eff _ _ _ E) as [->|(k & -> & _ & Hk)]; [exact HJ|].
  pose proof (sks_nonempty _ HB) as NE. destruct HJ as [J0 HJ].
  split; [exact J0|]. vw. destruct (sc_sks s) as [|k0 r] eqn:Es; [congruence|]. cbn [tl].
  eapply QV_sks_gen; [lia| |exact HJ]. intros P HP HK. inversion HK as [|x y _ Hr]; subst.
  constructor; [|exact Hr]. intros _. unfold kpos. rewrite Hk. rewrite app_length in HP. lia.
Qed.

Lemma Q_wk pre d e (s : st) sks' : wk (sc_sks s) sks' -> Q pre d e s -> Q pre d e (set_sks sks' s).
Proof. intros W [J0 HJ]. split; [exact J0|]. vw. eapply QV_sks; [exact W|exact HJ]. Qed.

Lemma kq_remove_simple_key d e : kq (@remove_simple_key I) d e d e.
Proof.
  apply kq_intro; [apply Keepk_remove_simple_key|]. intros pre s a s' E _ HJ.
  unfold remove_simple_key, bind, get, put, fail, panic in E.
  destruct (sc_sks s) as [|k r] eqn:Es; [discriminate|]. destruct (_ && _); [discriminate|].
  inversion E; subst. apply Q_wk; [|exact HJ]. rewrite Es. constructor; [apply wk1_kill|apply wk_refl].
Qed.

Lemma stale_Q pre d e (s : st) a s' : stale_simple_keys s = Ok (a, s') -> Q pre d e s -> Q pre d e s'.
Proof.
  intros E HJ. unfold stale_simple_keys, bind, get, put, fail in E. destruct (existsb _ _); [discriminate|].
  inversion E; subst. apply Q_wk; [|exact HJ]. apply wk_map. intros k.
  destruct (_ && _); [apply wk1_kill|split; auto].
Qed.
Lemma kq_stale_simple_keys d e : kq (@stale_simple_keys I) d e d e.
Proof. apply kq_intro; [apply Keepk_stale_simple_keys|]. intros pre s a s' E _ HJ. eapply stale_Q; eauto. Qed.

Lemma kq_kill_key d e :
  kq (modify (fun s : st => match sc_sks s with
                            | k :: r => set_sks ({| sk_possible := false; sk_required := sk_required k;
                                                    sk_token_number := sk_token_number k; sk_mark := sk_mark k |} :: r) s
                            | [] => s end)) d e d e.
Proof.
  apply kq_intro; [apply Keepk_kill_key|]. intros pre s a s' E _ HJ. inversion E; subst.
  destruct (sc_sks s) as [|k r] eqn:Es; [exact HJ|].
  apply Q_wk; [|exact HJ]. rewrite Es. constructor; [apply wk1_kill|apply wk_refl].
Qed.

(* indentation *)
Lemma kq_roll_one_col_indent d e : kq (@roll_one_col_indent I) d e d e.
Proof.
  apply kq_intro; [apply Keepk_roll_one_col_indent|]. intros pre s a s' E _ HJ.
  unfold roll_one_col_indent, bind, get, put, ret in E. destruct (_ && _); inversion E; subst; [|exact HJ].
  eapply Q_view; [..|exact HJ]; reflexivity.
Qed.

Lemma kq_unroll_indent_go fuel col d e : kq (@unroll_indent_go I fuel col) d e d e.
Proof.
  induction fuel as [|fuel IH]; cbn [unroll_indent_go]; [apply kq_oof|].
  intros pre s a s' [HB HJ] E. unfold bind at 1, get at 1 in E.
  destruct (col <? sc_indent s)%Z; [|inversion E; subst; split; assumption].
  destruct (sc_indents s) as [|i r] eqn:EI; [discriminate|].
  unfold bind at 1, put at 1 in E.
  assert (H1 : QB pre d e (set_indent (in_indent i) r s)).
  { split.
    - destruct HB as (B1 & B2 & B3). unfold SkB. vw. rewrite EI in B3. cbn in B3. tauto.
    - eapply Q_view; [..|exact HJ]; reflexivity. }
  destruct (in_needs_block_end i) eqn:Eb.
  - unfold bind at 1 in E.
    destruct (push_tok (span_empty (sc_mark s), TBlockEnd) (set_indent (in_indent i) r s)) as [[u s2]| | |] eqn:E2; try discriminate.
    pose proof (kq_push_plain (span_empty (sc_mark s), TBlockEnd) d e eq_refl pre _ _ _ H1 E2) as H2.
    eapply IH; [exact H2|exact E].
  - unfold bind at 1, ret at 1 in E. eapply IH; [exact H1|exact E].
Qed.
Lemma kq_unroll_indent col d e : kq (@unroll_indent I col) d e d e.
Proof.
  intros pre s a s' H E. unfold unroll_indent in E. unfold bind at 1, get at 1 in E.
  destruct (0 <? sc_flow_level s)%N; [inversion E; subst; exact H|]. eapply kq_unroll_indent_go; eauto.
Qed.

Lemma kq_roll_indent_none col tk mk d e : wk_tok tk = 0%Z -> kq (@roll_indent I col None tk mk) d e d e.
Proof.
  intros Ho. apply kq_intro; [apply Keepk_roll_indent|]. intros pre s a s' E _ HJ.
  destruct (roll_indent_eff _ _ _ _ _ _ _ E) as [->|(_ & ind & inds & _ & [->|(_ & toks & -> & ->)])].
  - exact HJ.
  - eapply Q_view; [..|exact HJ]; reflexivity.
  - destruct HJ as [J0 HJ]. split; [exact J0|]. vw. rewrite app_assoc. apply QV_push_plain; [exact Ho|exact HJ].
Qed.

(* the implicit-flow-mapping stack and the flow level *)
Lemma kq_end_implicit_mapping mk d e : kq (@end_implicit_mapping I mk) d e d e.
Proof.
  apply kq_intro; [apply Keepk_end_implicit_mapping|]. intros pre s a s' E _ [J0 HJ].
  unfold end_implicit_mapping in E. unfold bind at 1, get at 1 in E.
  destruct (sc_ifms s) as [|[| | |] r] eqn:Ei; try (inversion E; subst; split; [exact J0|rewrite Ei; exact HJ]).
  - unfold bind, put, push_tok, modify in E. inversion E; subst. split; [exact J0|]. vw. rewrite app_assoc.
    replace d with ((d + 1) + wt (span_empty mk, TFlowMappingEnd))%Z by (unfold wt; cbn; lia).
    apply QV_push.
    + eapply QV_state; [exact HJ|intros _; discriminate| |]; intros HL; cbn [length] in *; rewrite ?ni_cons; cbn [is_inside]; lia.
    + intros _. right. reflexivity.
  - unfold put in E. inversion E; subst. split; [exact J0|]. vw.
    eapply QV_state; [exact HJ|intros _; discriminate| |]; intros HL; cbn [length] in *; rewrite ?ni_cons; cbn [is_inside]; lia.
Qed.

Lemma kq_increase : kq (@increase_flow_level I) 0 0 (-1) (-1).
Proof.
  intros pre s a s' [HB [J0 HJ]] E. unfold increase_flow_level, bind, get, put in E.
  destruct (sc_flow_level s =? FLOW_LEVEL_MAX)%N eqn:EM; [discriminate|]. inversion E; subst. split.
  - destruct HB as (B1 & B2 & B3). unfold SkB. vw. cbn [length]. repeat split; auto. lia.
  - split; [exact J0|]. vw.
    eapply QV_state; [eapply QV_sks_gen; [| |exact HJ]|..]; try lia.
    intros P _ HK. constructor; [cbn; discriminate|exact HK].
Qed.

Lemma kq_push_ifms x : is_inside x = false -> kq (modify (fun s : st => set_ifms (x :: sc_ifms s) s)) (-1) (-1) (-1) 0.
Proof.
  intros Hx pre s a s' [HB [J0 HJ]] E. inversion E; subst. split; [exact HB|]. split; [exact J0|]. vw.
  eapply QV_state; [exact HJ|lia| |]; intros HL; cbn [length] in *; rewrite ?ni_cons, ?Hx; lia.
Qed.

Lemma kq_key_ifms d e :
  kq (modify (fun s : st => match sc_ifms s with
                            | ImPossible :: r => set_ifms (ImInsideExplicitKey :: r) s
                            | _ => s end)) d e d e.
Proof.
  apply kq_intro; [apply Keepk_key_ifms|]. intros pre s a s' E _ [J0 HJ]. inversion E; subst.
  destruct (sc_ifms s) as [|[| | |] r] eqn:Ei; try (split; [exact J0|rewrite Ei; exact HJ]).
  split; [exact J0|]. vw.
  eapply QV_state; [exact HJ|intros _; discriminate| |]; intros HL; cbn [length] in *; rewrite ?ni_cons; cbn [is_inside]; lia.
Qed.


(* 3. the token-producing scanners return a token that is no flow collection start or end *)
Definition retw (m : M token) : Prop := forall s t s', m s = Ok (t, s') -> wt t = 0%Z.
Lemma leaf_wt t : leaf t -> wt t = 0%Z.
Proof. destruct t as [sp []]; intros H; first [reflexivity|discriminate H]. Qed.
Lemma retw_leaf (m : M token) : Res leaf m -> retw m.
Proof. apply Res_impl, leaf_wt. Qed.

Variable F : nat.

Lemma retw_scan_version_directive_value mk : retw (scan_version_directive_value ops F mk).
Proof. apply retw_leaf, leaf_scan_version_directive_value. Qed.
Lemma retw_scan_tag_directive_value mk : retw (scan_tag_directive_value ops F mk).
Proof. apply retw_leaf, leaf_scan_tag_directive_value. Qed.

Lemma kq_bind_tok (m : M token) (f : token -> M unit) d e d' e' :
  Fr m -> Res leaf m -> (forall t, wt t = 0%Z -> kq (f t) d e d' e') -> kq (bind m f) d e d' e'.
Proof.
  intros Hm Hk Hf pre s b s' H E. unfold bind in E. destruct (m s) as [[t s1]| | |] eqn:E1; try discriminate.
  eapply Hf; [eapply retw_leaf; [exact Hk|exact E1]| |exact E]. eapply (kq_Fr m d e Hm); [exact H|exact E1].
Qed.

(* 4. Model/SFetch.v *)
Create HintDb kq.
Hint Resolve kq_allow kq_disallow kq_save_simple_key kq_remove_simple_key kq_stale_simple_keys kq_roll_one_col_indent
  kq_unroll_indent kq_increase kq_end_implicit_mapping kq_key_ifms : kq.
Hint Extern 1 (kq (roll_indent _ None _ _) _ _ _ _) => apply kq_roll_indent_none; reflexivity : kq.

Ltac kq1 :=
  lazymatch goal with
  | |- kq (bind _ _) _ _ _ _ => eapply kq_bind; [kq1|intros ?]
  | |- kq (ret _) _ _ _ _ => apply kq_Fr, Fr_ret
  | |- kq (fail _ _) _ _ _ _ => apply kq_fail
  | |- kq (panic _) _ _ _ _ => apply kq_panic
  | |- kq oof _ _ _ _ => apply kq_oof
  | |- kq get _ _ _ _ => apply kq_Fr, Fr_get
  | |- kq (gets _) _ _ _ _ => apply kq_Fr, Fr_gets
  | |- kq (push_tok _) (-1)%Z _ _ _ => apply kq_push_open; first [reflexivity | match goal with |- context [if ?b then _ else _] => destruct b; reflexivity end]
  | |- kq (push_tok _) 1%Z _ _ _ => apply kq_push_close; first [reflexivity | match goal with |- context [if ?b then _ else _] => destruct b; reflexivity end]
  | |- kq (push_tok _) _ _ _ _ => apply kq_push_plain; first [reflexivity | assumption | match goal with |- context [if ?b then _ else _] => destruct b; reflexivity end]
  | |- kq (match ?x with _ => _ end) _ _ _ _ => destruct x
  | |- kq _ _ _ _ _ => first [ solve [eauto 2 with kq] | apply kq_Fr; solve [auto with fr] ]
  end.
Ltac kq_go := repeat (lazy zeta; kq1).

Lemma kq_fetch_directive : kq (fetch_directive ops F) 0 0 0 0.
Proof.
  unfold fetch_directive. do 3 (eapply kq_bind; [solve [eauto 2 with kq]|intros _]).
  apply kq_bind_tok; [apply Fr_scan_directive|apply leaf_scan_directive|]. intros t Ht. kq_go.
Qed.
Lemma kq_fetch_tag : kq (fetch_tag ops F) 0 0 0 0.
Proof.
  unfold fetch_tag. do 2 (eapply kq_bind; [solve [eauto 2 with kq]|intros _]).
  apply kq_bind_tok; [apply Fr_scan_tag|apply leaf_scan_tag|]. intros t Ht. kq_go.
Qed.
Lemma kq_fetch_anchor alias : kq (fetch_anchor ops F alias) 0 0 0 0.
Proof.
  unfold fetch_anchor. do 2 (eapply kq_bind; [solve [eauto 2 with kq]|intros _]).
  apply kq_bind_tok; [apply Fr_scan_anchor|apply leaf_scan_anchor|]. intros t Ht. kq_go.
Qed.
Lemma kq_fetch_block_scalar literal : kq (fetch_block_scalar ops F literal) 0 0 0 0.
Proof.
  unfold fetch_block_scalar. do 2 (eapply kq_bind; [solve [eauto 2 with kq]|intros _]).
  apply kq_bind_tok; [apply Fr_scan_block_scalar|apply leaf_scan_block_scalar|]. intros t Ht. kq_go.
Qed.
Lemma kq_set_adj d e : kq (modify (fun s : st => set_adj (m_index (sc_mark s)) s)) d e d e.
Proof. apply kq_modify_view. intros s. unfold vsame; cbn. auto 10. Qed.
Hint Resolve kq_set_adj : kq.
Lemma kq_fetch_flow_scalar single : kq (fetch_flow_scalar ops F single) 0 0 0 0.
Proof.
  unfold fetch_flow_scalar. do 2 (eapply kq_bind; [solve [eauto 2 with kq]|intros _]).
  apply kq_bind_tok; [apply Fr_scan_flow_scalar|apply leaf_scan_flow_scalar|]. intros t Ht. kq_go.
Qed.
Lemma kq_fetch_plain_scalar : kq (fetch_plain_scalar ops F) 0 0 0 0.
Proof.
  unfold fetch_plain_scalar. do 2 (eapply kq_bind; [solve [eauto 2 with kq]|intros _]).
  apply kq_bind_tok; [apply Fr_scan_plain_scalar|apply leaf_scan_plain_scalar|]. intros t Ht. kq_go.
Qed.
Lemma kq_fetch_flow_entry : kq (fetch_flow_entry ops F) 0 0 0 0.
Proof. unfold fetch_flow_entry. kq_go. Qed.
Lemma kq_fetch_block_entry : kq (fetch_block_entry ops F) 0 0 0 0.
Proof. unfold fetch_block_entry. kq_go. Qed.
Lemma kq_fetch_document_indicator t : wk_tok t = 0%Z -> kq (fetch_document_indicator ops t) 0 0 0 0.
Proof. intros Ht. unfold fetch_document_indicator. kq_go. Qed.

Lemma kq_fetch_stream_end : kq (fetch_stream_end (I:=I)) 0 0 0 0.
Proof.
  unfold fetch_stream_end.
  eapply kq_bind; [apply kq_modify_view; intros s; destruct (_ =? _)%N; unfold vsame; cbn; auto 10|intros _].
  intros pre s a s' H E. unfold bind at 1, get at 1 in E. destruct (existsb _ _); [discriminate|].
  unfold bind at 1, put at 1 in E.
  match type of E with ?m ?s1 = _ =>
    assert (H1 : QB pre 0 0 s1);
    [|assert (HR : kq m 0 0 0 0) by kq_go; exact (HR pre _ _ _ H1 E)] end.
  destruct H as [HB HJ]. split.
  - destruct HB as (B1 & B2 & B3). unfold SkB. vw. rewrite map_length. auto.
  - apply Q_wk; [|exact HJ]. apply wk_map. intros k. apply wk1_kill.
Qed.

Lemma kq_fetch_key : kq (fetch_key ops F) 0 0 0 0.
Proof. unfold fetch_key. kq_go. Qed.

Lemma kq_fetch_flow_collection_start seq : kq (fetch_flow_collection_start ops F seq) 0 0 0 0.
Proof.
  unfold fetch_flow_collection_start.
  do 6 (eapply kq_bind; [kq1|intros ?]).
  eapply kq_bind; [apply kq_push_ifms; destruct seq; reflexivity|intros ?]. kq_go.
Qed.


(* fetch_flow_collection_end: decrease_flow_level saturates at 0 *)
Definition top_dead (sks : list simple_key) : Prop := match sks with k :: _ => sk_possible k = false | [] => True end.
Definition Qh (seq : bool) (l : list ims) : Prop := seq = false -> hd_inside l = false.

Lemma Tr_remove_Q seq pre :
  Tr (fun s => QB pre 0 0 s /\ Qh seq (sc_ifms s)) (@remove_simple_key I)
     (fun _ s => QB pre 0 0 s /\ Qh seq (sc_ifms s) /\ top_dead (sc_sks s)).
Proof.
  intros s a s' [HJ HQ] E. split; [eapply (kq_remove_simple_key 0 0); eauto|].
  unfold remove_simple_key, bind, get, put, fail, panic in E.
  destruct (sc_sks s) as [|k r]; [discriminate|]. destruct (_ && _); [discriminate|]. inversion E; subst.
  split; [exact HQ|reflexivity].
Qed.

Lemma Tr_decrease_Q seq pre :
  Tr (fun s => QB pre 0 0 s /\ Qh seq (sc_ifms s) /\ top_dead (sc_sks s)) (@decrease_flow_level I)
     (fun _ s => QB pre 1 1 s /\ Qh seq (sc_ifms s)).
Proof.
  intros s a s' ([HB [J0 HJ]] & HQ & HT) E. unfold decrease_flow_level, bind, get, put, ret, panic in E.
  destruct (0 <? sc_flow_level s)%N eqn:EM.
  - apply N.ltb_lt in EM. destruct (sc_sks s) as [|k r] eqn:Es; [discriminate|]. inversion E; subst.
    split; [|exact HQ]. split.
    + destruct HB as (B1 & B2 & B3). unfold SkB. vw. rewrite Es in B2. cbn [length] in B2. repeat split; auto. lia.
    + split; [exact J0|]. vw.
      eapply QV_state; [eapply (QV_sks_gen _ _ _ (k :: r) r); [| |exact HJ]|..]; try lia.
      intros P _ HK. inversion HK; assumption.
  - apply N.ltb_ge in EM. inversion E; subst. split; [|exact HQ]. split; [exact HB|]. split; [exact J0|].
    assert (EF : sc_flow_level s' = 0%N) by lia.
    destruct HB as (_ & B2 & _). rewrite EF in B2.
    destruct (sc_sks s') as [|k [|k2 r]] eqn:Es; cbn [length] in B2; try lia.
    assert (HC : allclr [k]) by (constructor; [exact HT|constructor]).
    destruct HJ as [[H1 H2]|[HD|(Hd & _)]]; [|right; left; exact HD|lia].
    right; right. rewrite EF in *. destruct (sc_ifms s') as [|x ri]; [|cbn [length] in H1; lia].
    repeat split; auto.
Qed.

Lemma pop_ifms_Q pre (s : st) :
  hd_inside (sc_ifms s) = false -> QB pre 1 1 s -> QB pre 1 0 (set_ifms (tl (sc_ifms s)) s).
Proof.
  intros Hh [HB [J0 HJ]]. split; [exact HB|]. split; [exact J0|]. vw.
  destruct HJ as [[H1 H2]|[HD|(Hd & Hf & Hi & HZ & HC)]].
  - left. destruct (sc_ifms s) as [|x r]; [cbn [length] in H1; lia|]. cbn [tl length] in *.
    rewrite ni_cons in H2. destruct x; try discriminate; cbn [is_inside] in H2; split; lia.
  - right; left. exact HD.
  - right; right. rewrite Hi. cbn [tl]. repeat split; auto.
Qed.

Lemma kq_adj_if d e :
  kq (modify (fun s : st => if (0 <? sc_flow_level s)%N then set_adj (m_index (sc_mark s)) s else s)) d e d e.
Proof. apply kq_modify_view. intros s. destruct (_ <? _)%N; unfold vsame; cbn; auto 10. Qed.
Hint Resolve kq_adj_if : kq.

Lemma kq_fetch_flow_collection_end seq : kq (fetch_flow_collection_end ops F seq) 0 0 0 0.
Proof.
  unfold fetch_flow_collection_end. intros pre.
  eapply Tr_bind; [apply Tr_check_flow_closer|intros ?; cbv beta].
  eapply Tr_bind; [apply (Tr_remove_Q seq pre)|intros ?; cbv beta].
  eapply Tr_bind; [apply (Tr_decrease_Q seq pre)|intros ?; cbv beta].
  eapply Tr_bind; [apply (Tr_keep_ifms _ _ _ (Qh seq) (kq_disallow 1 1 pre) same_ifms_disallow)|intros ?; cbv beta].
  eapply Tr_bind with (R := fun _ s => QB pre 1 1 s /\ hd_inside (sc_ifms s) = false).
  { destruct seq.
    - intros s x s' [HJ _] E. unfold bind at 1, mark, gets in E.
      split; [eapply (kq_end_implicit_mapping (sc_mark s) 1 1); [exact HJ|exact E]|eapply end_implicit_hd; exact E].
    - intros s x s' [HJ HQ] E. inversion E; subst. split; [exact HJ|apply HQ; reflexivity]. }
  intros ?; cbv beta.
  eapply Tr_bind with (R := fun _ => QB pre 1 0).
  { intros s x s' [HJ Hh] E. inversion E; subst. apply pop_ifms_Q; assumption. }
  intros ?; cbv beta.
  match goal with |- Tr _ ?m _ => assert (HR : kq m 1 0 0 0) by kq_go; apply HR end.
Qed.

(* fetch_value: tokens are inserted in the middle of the queue, at the position of a possible simple key *)
Lemma insert_Q pre d e (s : st) sk r t l :
  sc_sks s = sk :: r -> sk_possible sk = true -> (sc_tokens_parsed s <= sk_token_number sk)%N ->
  insert_at (N.to_nat (sk_token_number sk - sc_tokens_parsed s)) t (sc_tokens s) = Some l ->
  Q pre d e s -> Q pre (d + wt t) e (set_tokens l s).
Proof.
  intros Es Hp Hle Hi [J0 HJ]. destruct (insert_at_split _ _ _ _ Hi) as (a0 & b0 & Et & -> & Hl).
  split; [exact J0|]. vw. rewrite Et in HJ. rewrite app_assoc in HJ |- *.
  eapply (QV_insert t d e (pre ++ a0) b0 _ _ _ sk); [rewrite Es; left; reflexivity|exact Hp| |exact HJ].
  unfold kpos. rewrite app_length. lia.
Qed.

Lemma roll_indent_some_Q pre d e (s : st) a s' sk r col mk :
  roll_indent col (Some (sk_token_number sk)) TBlockMappingStart mk s = Ok (a, s') ->
  sc_sks s = sk :: r -> sk_possible sk = true -> Q pre d e s -> Q pre d e s'.
Proof.
  intros E Es Hp HJ.
  destruct (roll_indent_eff _ _ _ _ _ _ _ E) as [->|(_ & ind & inds & _ & [->|(_ & toks & -> & EP & Ei)])].
  - exact HJ.
  - eapply Q_view; [..|exact HJ]; reflexivity.
  - replace d with (d + wt (span_empty mk, TBlockMappingStart))%Z by (unfold wt; cbn; lia).
    eapply (insert_Q pre d e _ sk r _ toks); vw; eassumption.
Qed.

Ltac bstep E E1 a s1 :=
  unfold bind at 1 in E;
  match type of E with (match ?m ?s with _ => _ end) = _ => destruct (m s) as [[a s1]| | |] eqn:E1; try discriminate end.

Lemma step_Fr_Q {A} (m : M A) pre d e (x : st) a y sks fl :
  Fr m -> m x = Ok (a, y) -> QB pre d e x /\ sc_sks x = sks /\ sc_flow_level x = fl ->
  QB pre d e y /\ sc_sks y = sks /\ sc_flow_level y = fl.
Proof.
  intros HF E (HJ & H1 & H2). split; [eapply (kq_Fr m d e HF); eauto|].
  destruct (HF _ _ _ E) as (F1 & F2 & _). rewrite F1, F2. auto.
Qed.

Lemma kq_fetch_value : kq (fetch_value ops F) 0 0 0 0.
Proof.
  intros pre s a s' [HB HJ] E. unfold fetch_value in E. unfold bind at 1, get at 1 in E.
  destruct (sc_sks s) as [|sk r] eqn:Es; [discriminate|]. unfold bind at 1, ret at 1 in E. cbv zeta in E.
  remember (match sc_ifms s with ImPossible :: _ => true | _ => false end) as bs eqn:Ebs.
  bstep E E1 u1 s1.
  assert (H1 : QB pre (if bs then -1 else 0) 0 s1 /\ sc_sks s1 = sk :: r /\ sc_flow_level s1 = sc_flow_level s).
  { destruct bs.
    - inversion E1; subst. split; [|split; [exact Es|reflexivity]]. split; [exact HB|]. destruct HJ as [J0 HJ].
      split; [exact J0|]. vw. destruct (sc_ifms s) as [|[| | |] ri]; try discriminate. cbn [tl].
      eapply QV_state; [exact HJ|lia| |]; intros HL; cbn [length] in *; rewrite ?ni_cons; cbn [is_inside]; lia.
    - inversion E1; subst. split; [split; assumption|split; [exact Es|reflexivity]]. }
  clear E1 HJ HB.
  bstep E E2 u2 s2. apply (step_Fr_Q _ _ _ _ _ _ _ _ _ (Fr_skip_non_blank ops) E2) in H1. clear E2.
  bstep E E3 c s3.
  assert (H3 : Fr (if (sc_flow_level s =? 0)%N then look_ch ops else ret 0%N)) by (destruct (_ =? _)%N; auto with fr).
  apply (step_Fr_Q _ _ _ _ _ _ _ _ _ H3 E3) in H1. clear E3 H3.
  bstep E E4 u4 s4.
  match type of E4 with ?m _ = _ => assert (H4 : Fr m) by fr end.
  apply (step_Fr_Q _ _ _ _ _ _ _ _ _ H4 E4) in H1. clear E4 H4.
  destruct H1 as ([HB4 HJ4] & Es4 & Ef4).
  destruct (sk_possible sk) eqn:Hp.
  - unfold bind at 1, get at 1 in E.
    destruct (sk_token_number sk <? sc_tokens_parsed s4)%N eqn:EP; [discriminate|]. apply N.ltb_ge in EP.
    unfold bind at 1, ret at 1 in E.
    bstep E E5 u5 s5. unfold insert_token in E5.
    destruct (insert_at _ _ (sc_tokens s4)) as [l5|] eqn:Ei5; [|discriminate]. inversion E5; subst u5 s5. clear E5.
    pose proof (insert_Q pre _ 0 s4 sk r _ l5 Es4 Hp EP Ei5 HJ4) as HJ5.
    replace ((if bs then -1 else 0) + wt (span_empty (sk_mark sk), TKey))%Z with (if bs then -1 else 0)%Z in HJ5
      by (unfold wt; cbn; destruct bs; lia).
    bstep E E6 u6 s6.
    assert (H6 : SkB s6 /\ sc_sks s6 = sk :: r /\ Q pre 0 0 s6).
    { destruct bs.
      - cbn [orb] in E6. destruct (_ || _) in E6; [discriminate|]. unfold insert_token in E6. vwin E6.
        destruct (insert_at _ _ l5) as [l6|] eqn:Ei6; [|discriminate]. inversion E6; subst u6 s6.
        split; [exact HB4|]. split; [exact Es4|].
        exact (insert_Q pre (-1) 0 (set_tokens l5 s4) sk r _ l6 Es4 Hp EP Ei6 HJ5).
      - assert (s6 = set_tokens l5 s4).
        { cbn [orb] in E6. destruct (match sc_ifms s with ImInside :: _ => true | _ => false end);
            [destruct (_ || _) in E6; [discriminate|]|]; inversion E6; reflexivity. }
        subst s6. split; [exact HB4|]. split; [exact Es4|]. exact HJ5. }
    clear E6 HJ5 HJ4. destruct H6 as (HB6 & Es6 & HJ6).
    bstep E E7 u7 s7.
    pose proof (roll_indent_some_Q pre 0 0 s6 u7 s7 sk r _ _ E7 Es6 Hp HJ6) as HJ7.
    pose proof (Keepk_roll_indent _ _ _ _ _ _ _ HB6 E7) as (HB7 & _).
    match type of E with ?m _ = _ => assert (HR : kq m 0 0 0 0) end.
    { eapply kq_bind; [apply kq_roll_one_col_indent|intros ?]. eapply kq_bind; [apply kq_kill_key|intros ?]. kq_go. }
    exact (HR pre _ _ _ (conj HB7 HJ7) E).
  - match type of E with ?m _ = _ => assert (HR : kq m (if bs then -1 else 0) 0 0 0) end.
    { destruct bs; cbv iota; kq_go. }
    exact (HR pre _ _ _ (conj HB4 HJ4) E).
Qed.
Hint Resolve kq_fetch_value : kq.

Lemma kq_fetch_flow_value : kq (fetch_flow_value ops F) 0 0 0 0.
Proof. unfold fetch_flow_value. kq_go. Qed.


(* 5. fetch_next_token, fetch_more_tokens, next_token, the Scanner iterator *)
Hint Resolve kq_fetch_stream_end kq_fetch_directive kq_fetch_flow_collection_start kq_fetch_flow_collection_end
  kq_fetch_flow_entry kq_fetch_block_entry kq_fetch_key kq_fetch_flow_value kq_fetch_anchor kq_fetch_tag
  kq_fetch_block_scalar kq_fetch_flow_scalar kq_fetch_plain_scalar : kq.
Hint Extern 1 (kq (fetch_document_indicator _ _) _ _ _ _) => apply kq_fetch_document_indicator; reflexivity : kq.

Definition QInv (pre : list token) (s : st) : Prop := SkInv s /\ Q pre 0 0 s.

Lemma stream_start_Q pre (s : st) a s' : fetch_stream_start s = Ok (a, s') -> Q pre 0 0 s -> Q pre 0 0 s'.
Proof.
  intros E [J0 HJ]. unfold fetch_stream_start, bind, get, put in E. inversion E; subst. split; [exact J0|]. vw.
  rewrite app_assoc. eapply QV_sks_gen; [lia| |apply QV_push_plain; [reflexivity|exact HJ]].
  intros P _ HK. constructor; [cbn; discriminate|exact HK].
Qed.

Lemma fetch_next_token_Q pre : Tr (QInv pre) (fetch_next_token ops F) (fun _ => Q pre 0 0).
Proof.
  intros s a s' [HS HJ] E. rewrite DispatchTie.fetch_next_token_shape in E.
  bstep E E1 u1 s1. pose proof (Fr_look ops 1 _ _ _ E1) as HF.
  apply (Q_frame _ _ _ _ _ HF) in HJ. apply (SkInv_frame _ _ HF) in HS. clear E1 HF.
  unfold bind at 1, get at 1 in E. destruct (sc_stream_start s1) eqn:ESS; cbn [negb] in E.
  - pose proof (SkInv_SkB _ HS ESS) as HB.
    match type of E with ?m _ = _ => assert (HR : kq m 0 0 0 0) end.
    { kq_go. apply DispatchTie.dispatch_cases. intros [] _; cbn [DispatchTie.run_dact]; kq1. }
    apply (HR pre _ _ _ (conj HB HJ) E).
  - eapply stream_start_Q; eauto.
Qed.

Lemma fetch_more_tokens_QInv fuel pre : Tr (QInv pre) (fetch_more_tokens ops F fuel) (fun _ => QInv pre).
Proof.
  apply fetch_more_tokens_keeps; [|apply stale_Q|apply fetch_next_token_Q].
  intros s HJ. eapply Q_view; [..|exact HJ]; reflexivity.
Qed.

(* between two calls of next_token; [Good] (LazyScan.v): a queued StreamEnd token is the last one *)
Definition TInv (pre : list token) (s : st) : Prop :=
  QInv pre s /\ (sc_stream_end s = false -> Good s) /\ (sc_stream_end s = true -> sc_tokens s = []).

Lemma pop_good (s1 : st) t r n :
  Good s1 -> sc_tokens s1 = t :: r ->
  (is_se (snd t) = true -> r = [])
  /\ (is_se (snd t) = false -> Good (set_tp n (set_ta false (set_tokens r s1)))).
Proof.
  intros [HN|(HC & l & EL & HL)] ET.
  - split.
    + intros HS. specialize (HN t). rewrite ET in HN. specialize (HN (or_introl eq_refl)). unfold tnse in HN. congruence.
    + intros _. left. intros x Hx. apply HN. rewrite ET. right. exact Hx.
  - rewrite ET in EL. destruct l as [|y l'].
    + cbn [app] in EL. inversion EL; subst. split; [reflexivity|intros HS; discriminate HS].
    + cbn [app] in EL. inversion EL; subst. split.
      * intros HS. specialize (HL y (or_introl eq_refl)). unfold tnse in HL. congruence.
      * intros _. right. split; [exact HC|]. exists l'. split; [reflexivity|]. intros x Hx. apply HL. right. exact Hx.
Qed.

Lemma next_token_TInv pre (s : st) t s' :
  next_token ops F s = Ok (Some t, s') -> TInv pre s -> TInv (pre ++ [t]) s'.
Proof.
  intros H (HI & HG & HE). unfold next_token in H. unfold bind at 1, get at 1 in H.
  destruct (sc_stream_end s) eqn:ESE; [inversion H|].
  bstep H E1 u s1.
  assert (H1 : QInv pre s1 /\ Good s1 /\ sc_stream_end s1 = false).
  { destruct (sc_token_available s); [inversion E1; subst; auto|].
    split; [eapply fetch_more_tokens_QInv; eauto|].
    destruct (fetch_more_tokens_good ops F _ _ _ _ E1) as ([FL _] & G & _). split; [apply G, HG; reflexivity|congruence]. }
  clear E1 HI HG HE. destruct H1 as (HI & HG & ES1). unfold bind at 1, get at 1 in H.
  destruct (sc_tokens s1) as [|t0 r] eqn:ET; [discriminate|].
  unfold bind at 1, put at 1 in H. unfold bind at 1 in H.
  assert (H2 : QInv (pre ++ [t0]) (set_tp (sc_tokens_parsed s1 + 1) (set_ta false (set_tokens r s1)))).
  { destruct HI as [HS [J0 HJ]]. split.
    - eapply SkInv_vsame; [|exact HS]. unfold vsame; cbn; auto 10.
    - split; vw; [rewrite app_length, J0; cbn [length]; lia|].
      rewrite <- app_assoc. cbn [app]. rewrite ET in HJ. exact HJ. }
  destruct (pop_good s1 t0 r (sc_tokens_parsed s1 + 1)%N HG ET) as [PG1 PG2].
  destruct (is_se (snd t0)) eqn:EK.
  - destruct (snd t0); try discriminate EK. unfold modify, ret in H. inversion H; subst. rewrite (PG1 eq_refl) in *.
    split; [|split; [intros X; discriminate X|intros _; reflexivity]].
    destruct H2 as [HS HJ]. split.
    + eapply SkInv_vsame; [|exact HS]. unfold vsame; cbn; auto 10.
    + eapply Q_view; [..|exact HJ]; reflexivity.
  - assert (s' = set_tp (sc_tokens_parsed s1 + 1) (set_ta false (set_tokens r s1)) /\ t = t0).
    { destruct (snd t0); try discriminate EK; unfold ret in H; inversion H; auto. }
    destruct H0 as [-> ->]. split; [exact H2|]. split; [intros _; apply PG2; reflexivity|].
    cbn. rewrite ES1. intros X; discriminate X.
Qed.

Lemma TInv_init (i : I) : TInv [] (init_sc i).
Proof.
  split; [split; [apply SkInv_init|]|].
  - split; [reflexivity|]. left. cbn. split; reflexivity.
  - split; [intros _; left; intros t []|cbn; intros X; discriminate X].
Qed.

(* the state in which a scan ends *)
Fixpoint last_state (n : nat) (s : st) : st :=
  match n with
  | O => s
  | S n => match next_token ops F s with
           | Ok (Some _, s') => last_state n s'
           | Ok (None, s') => s'
           | _ => s
           end
  end.

Lemma scan_all_final fuel : forall (s : st) acc toks,
  TInv (rev acc) s -> scan_all ops F fuel s acc = (toks, SEnded) ->
  QV 0 0 toks (sc_sks (last_state fuel s)) (sc_flow_level (last_state fuel s)) (sc_ifms (last_state fuel s)).
Proof.
  induction fuel as [|fuel IH]; intros s acc toks HI HS; cbn [scan_all last_state] in *; [discriminate HS|].
  destruct (next_token ops F s) as [[[t|] s']| | |] eqn:E; try discriminate HS.
  - apply (IH s' (t :: acc) toks); [cbn [rev]; eapply next_token_TInv; eauto|exact HS].
  - inversion HS; subst. destruct (next_token_none ops F _ _ E) as [ESE ->].
    destruct HI as ([_ [_ HJ]] & _ & HE). rewrite (HE ESE), app_nil_r in HJ. exact HJ.
Qed.

(* THE scanner theorem: a scan that ends properly with a bracket-balanced token stream ends at flow level 0 *)
Theorem balanced_flow_level_zero fuel (i : I) ss t sps :
  scan_all ops F fuel (init_sc i) [] = (ss :: t ++ [(sps, TStreamEnd)], SEnded) ->
  snd ss = TStreamStart -> Forall nse t ->
  RejectProofs.flow_balanced (ss :: t ++ [(sps, TStreamEnd)]) [] = true ->
  sc_flow_level (last_state fuel (init_sc i)) = 0%N.
Proof.
  intros HS HSS HN HB.
  pose proof (scan_all_final fuel (init_sc i) [] _ (TInv_init i) HS) as HQ.
  destruct ss as [sp0 k0]. cbn [snd] in HSS. subst k0. cbn [RejectProofs.flow_balanced] in HB.
  destruct (balanced_zs sps t [] HN HB) as [Z1 Z2]. cbn [length] in Z1, Z2.
  assert (ZT : zs ((sp0, TStreamStart) :: t ++ [(sps, TStreamEnd)]) = 0%Z).
  { cbn [zs]. rewrite zs_app. cbn [zs]. unfold wt. cbn [snd wk_tok]. lia. }
  destruct HQ as [[H1 H2]|[(P & HP & HZ & _)|(Hd & _)]].
  - rewrite ZT in H2. lia.
  - exfalso. destruct P as [|P]; [cbn in HZ; lia|]. cbn [firstn zs] in HZ. rewrite firstn_app, zs_app in HZ.
    specialize (Z2 P). unfold wt at 1 in HZ. cbn [snd wk_tok] in HZ.
    assert (Z3 : zs (firstn (P - length t) [(sps, TStreamEnd)]) = 0%Z) by (destruct (P - length t); [reflexivity|cbn; destruct n; reflexivity]).
    unfold token in *. lia.
  - discriminate Hd.
Qed.

End Scan.

Print Assumptions balanced_flow_level_zero.
