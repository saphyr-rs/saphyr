(* Joint proof "the scanner does an amount of work linear in the input" (see SCANFUEL.md): the PLAIN SCALAR family
   (scan_plain_scalar, its chunked word loop plain_chunk and its blank/break loop plain_blanks).
   Measures:
   - plain_chunk: every round either returns, or consumes a character that has just been seen not to be a blank, a
     break or NUL, or - when the chunk counter j has reached bufmaxlen - 1 - refreshes the lookahead and restarts the
     counter WITHOUT consuming.  A refresh is followed by at least one consuming round or by the exit, so
     [2 * rl s + (1 if a refresh is pending) < fuel] decreases in every round.
   - plain_blanks: every round consumes a blank or a break (both are real characters), or - a tab in the
     indentation - calls skip_ws_to_eol on a tab, which consumes it; [rl s < fuel].
   - the word loop of scan_plain_scalar: a round that reads a word consumes its first character; a round that reads no
     word either returns or enters plain_blanks on a blank or a break, which consumes it; [rl s < f].
   The primitives, skip_ws_to_eol among them, come from ScanFuelPrim.v. *)
From Coq Require Import List NArith ZArith Bool Arith Lia.
Import ListNotations.
Require Import Parser SBase SPrim SDir SScalar SFetch ScanLoops ScanFuel ScanFuelPrim.
Local Open Scope nat_scope.

(* plain_chunk: the rest of a word *)
Lemma fuel_plain_chunk : forall fuel j acc s,
  2 * rl s + (if Nat.leb (bufmaxlen str_ops - 1) j then 1 else 0) < fuel ->
  fwp (plain_chunk str_ops fuel j acc) (le_post s) s.
Proof.
  induction fuel as [|fuel IH]; intros j acc s Hf; [exfalso; lia|]. cbn [plain_chunk].
  destruct (Nat.leb (bufmaxlen str_ops - 1) j) eqn:E.
  - (* the chunk is exhausted: refresh the lookahead, restart the counter; nothing is consumed *)
    apply fwp_bind. apply fwp_look_rl. intros s1 _ E1 _ L1 _ _.
    apply fwp_le_from; [lia|lia|]. apply IH.
    change (Nat.leb (bufmaxlen str_ops - 1) 0) with false. cbv iota. lia.
  - apply fwp_bind. apply fwp_next_is. apply fwp_bind. apply fwp_get. cbv beta.
    destruct (is_blank_or_breakz (fnth s 0)) eqn:Eb.
    + apply fwp_bind. apply fwp_ret. cbn [orb]. apply fwp_ret. split; lia.
    + apply fwp_bind. apply fwp_next_can_be_plain_scalar. cbn [orb].
      match goal with |- fwp (if negb ?cb then _ else _) _ _ => destruct cb end; cbn [negb].
      * apply fwp_bind. apply fwp_peek. apply fwp_bind.
        apply fwp_skip_non_blank_real; [apply not_blank_or_breakz_nz; exact Eb|]. intros s1 D1 _ L1.
        apply fwp_le_from; [lia|lia|]. apply IH.
        destruct (Nat.leb (bufmaxlen str_ops - 1) (S j)); lia.
      * apply fwp_ret. split; lia.
Qed.

Lemma fuel_plain_chunk0 fuel acc s : 2 * rl s < fuel -> fwp (plain_chunk str_ops fuel 0 acc) (le_post s) s.
Proof.
  intros Hf. apply fuel_plain_chunk. change (Nat.leb (bufmaxlen str_ops - 1) 0) with false. cbv iota. lia.
Qed.

(* ---------------- plain_blanks: blanks and breaks between the words ----------------
   entered on a blank or a break it consumes at least that character *)
Lemma fuel_plain_blanks F : forall fuel indent start lb tb ws s,
  rl s < F -> rl s < fuel ->
  fwp (plain_blanks str_ops F fuel indent start lb tb ws)
      (fun _ s' => rl s' <= rl s /\ lk s <= lk s' /\
                   (is_blank (fnth s 0) || is_break (fnth s 0) = true -> rl s' < rl s)) s.
Proof.
  induction fuel as [|fuel IH]; intros indent start lb tb ws s HF Hf; [exfalso; lia|].
  cbn [plain_blanks].
  apply fwp_bind. apply fwp_peek.
  (* the rest of the loop, entered after something has been consumed *)
  assert (HK : forall lb' tb' ws' s2, rl s2 < rl s -> lk s <= lk s2 ->
            fwp (bind (look str_ops 2) (fun _ => plain_blanks str_ops F fuel indent start lb' tb' ws'))
                (lt_post s) s2).
  { intros lb' tb' ws' s2 A2 B2. apply fwp_bind. apply fwp_look_rl. intros s3 _ E3 _ L3 _ _.
    eapply fwp_mono; [apply IH; lia|]. intros a s' (A & B & _). split; lia. }
  assert (HM : forall (a : bool * N * list chr) s', lt_post s a s' ->
            rl s' <= rl s /\ lk s <= lk s' /\ (is_blank (fnth s 0) || is_break (fnth s 0) = true -> rl s' < rl s)).
  { intros a s' [A B]. split; [lia|split; [lia|intros _; exact A]]. }
  destruct (is_blank (fnth s 0)) eqn:Eb.
  - pose proof (blank_nz _ Eb) as Hc.
    apply fwp_bind. apply fwp_get.
    destruct (negb (sc_lws s)).
    + apply fwp_bind. apply fwp_skip_blank_real; [exact Hc|]. intros s1 D1 _ L1.
      eapply fwp_mono; [apply HK; lia|exact HM].
    + match goal with |- fwp (if ?b then _ else _) _ _ => destruct b eqn:Et end.
      * (* a tab in the indentation: the rest of the line must be blank / a comment *)
        apply andb_true_iff in Et as [_ Et]. apply N.eqb_eq in Et.
        apply fwp_bind. apply fwp_skip_ws_to_eol; [exact HF|]. intros tw s1 _ B1 _ A1.
        assert (rl s1 < rl s) by (apply A1; right; split; [exact Et|reflexivity]).
        apply fwp_bind. apply fwp_next_is.
        destruct (is_breakz (fnth s1 0)); [|apply fwp_fail].
        eapply fwp_mono; [apply HK; lia|exact HM].
      * apply fwp_bind. apply fwp_skip_blank_real; [exact Hc|]. intros s1 D1 _ L1.
        eapply fwp_mono; [apply HK; lia|exact HM].
  - destruct (is_break (fnth s 0)) eqn:Ek.
    + apply fwp_bind. apply fwp_get. destruct (sc_lws s).
      * apply fwp_bind. apply fwp_skip_break. intros _ s1 R1 L1.
        eapply fwp_mono; [apply HK; lia|exact HM].
      * apply fwp_bind. apply fwp_skip_break. intros _ s1 R1 L1.
        apply fwp_bind. apply fwp_set_lws. intros s2 R2 L2.
        eapply fwp_mono; [apply HK; [rewrite (rl_eq _ _ R2)|]; lia|exact HM].
    + apply fwp_ret. split; [lia|split; [lia|discriminate]].
Qed.

(* a round that reads a word consumes its first character; a round that reads no word returns or consumes the blank
   or break it stands on; so: the remaining length never grows, and if it is unchanged the scalar is unchanged *)
Lemma fuel_plain_go F indent start : forall f acc lb tb ws endm s,
  fuel_ok F s -> rl s < f ->
  fwp (plain_go str_ops F indent start f acc lb tb ws endm)
      (fun r s' => rl s' <= rl s /\ lk s <= lk s' /\ (rl s' = rl s -> fst r = acc)) s.
Proof.
  induction f as [|f IH]; intros acc lb tb ws endm s HF Hf; [exfalso; lia|]. cbn [plain_go].
  pose proof HF as HF'. unfold fuel_ok in HF'.
  apply fwp_bind. apply fwp_look_rl. intros s1 _ E1 _ L1 _ _.
  apply fwp_bind. apply fwp_get. apply fwp_bind.
  match goal with |- fwp _ ?Q _ => assert (HQ : forall di, Q di s1) end.
  2:{ destruct (sc_lws s1 && (m_col (sc_mark s1) =? 0)%N);
        [apply fwp_next_is_document_indicator; exact HQ|apply fwp_ret; exact (HQ false)]. }
  intros di. cbv beta.
  apply fwp_bind. apply fwp_peek.
  match goal with |- fwp (if ?b then _ else _) _ _ => destruct b end.
  { apply fwp_ret. split; [lia|split; [lia|intros _; reflexivity]]. }
  apply fwp_bind. apply fwp_peekn. cbv zeta.
  match goal with |- fwp (if ?b then _ else _) _ _ => destruct b end; [apply fwp_fail|].
  apply fwp_bind.
  (* the first character of a word is consumed only if it is not a blank, a break or NUL *)
  match goal with |- fwp _ ?Q _ =>
    assert (HQ : forall cb, (cb = true -> fnth s1 0 <> 0%N) -> Q cb s1) end.
  2:{ destruct (is_blank_or_breakz (fnth s1 0)) eqn:Eb.
      - apply fwp_ret. refine (HQ false _). discriminate.
      - apply fwp_next_can_be_plain_scalar. apply HQ. intros _. apply not_blank_or_breakz_nz. exact Eb. }
  intros cb Hcb. cbv beta.
  apply fwp_bind.
  (* after the word *)
  match goal with |- fwp _ ?Q _ =>
    assert (HK : forall r s2, rl s2 <= rl s -> lk s <= lk s2 ->
                   (rl s2 = rl s -> fst (fst (fst (fst r))) = acc) -> Q r s2) end.
  { intros [[[[acc' lb'] tb'] ws'] endm'] s2 A2 B2 C2. cbv beta iota. cbn [fst] in C2.
    apply fwp_bind. apply fwp_peek.
    destruct (is_blank (fnth s2 0) || is_break (fnth s2 0)) eqn:Ebb; cbn [negb].
    2:{ apply fwp_ret. split; [lia|split; [lia|exact C2]]. }
    apply fwp_bind. apply fwp_look_rl. intros s3 _ E3 C3 L3 _ _.
    apply fwp_bind. eapply fwp_mono; [apply fuel_plain_blanks; lia|].
    intros [[lb2 tb2] ws2] s4 (A4 & B4 & C4). cbv beta iota.
    rewrite C3 in C4. specialize (C4 Ebb).
    apply fwp_bind. apply fwp_get.
    match goal with |- fwp (if ?b then _ else _) _ _ => destruct b end.
    { apply fwp_ret. split; [lia|split; [lia|intros X; exfalso; lia]]. }
    eapply fwp_mono; [apply IH; [eapply fuel_ok_le; [exact HF|lia]|lia]|]. intros r s' (A' & B' & C').
    split; [lia|split; [lia|intros X; exfalso; lia]]. }
  destruct cb; [|apply fwp_ret; refine (HK (acc, lb, tb, ws, endm) s1 _ _ _); [lia|lia|intros _; reflexivity]].
  destruct (if sc_lws s1 then _ else _) as [[[a1 l1] t1] w1]. cbv beta iota.
  apply fwp_bind. apply fwp_set_lws. intros sx Rx Lx. pose proof (rl_eq _ _ Rx) as Ex.
  apply fwp_bind. apply fwp_skip_non_blank_real; [rewrite (fnth_eq _ _ 0 Rx); exact (Hcb eq_refl)|]. intros s2 D2 _ L2.
  apply fwp_bind. apply fwp_look_rl. intros s3 _ E3 _ L3 _ _.
  apply fwp_bind. eapply fwp_mono; [apply fuel_plain_chunk0; lia|]. intros acc2 s4 [A4 B4].
  apply fwp_bind. unfold mark. apply fwp_gets. apply fwp_ret.
  refine (HK (acc2, l1, t1, w1, sc_mark s4) s4 _ _ _); [lia|lia|intros X; exfalso; lia].
Qed.

(* the contract *)
Theorem scan_plain_scalar_ok : fuel_scan_plain_scalar.
Proof.
  intros F s HF _. rewrite scan_plain_scalar_eq.
  pose proof HF as HF'. unfold fuel_ok in HF'.
  apply fwp_bind. apply fwp_unroll_non_block_indents. intros s1 R1 L1. pose proof (rl_eq _ _ R1) as E1.
  apply fwp_bind. apply fwp_get. cbv zeta.
  match goal with |- fwp (if ?b then _ else _) _ _ => destruct b end; [apply fwp_fail|].
  apply fwp_bind. eapply fwp_mono; [apply fuel_plain_go; [eapply fuel_ok_le; [exact HF|lia]|lia]|].
  intros r s2 (A2 & B2 & C2). cbv beta.
  apply fwp_bind. apply fwp_get. apply fwp_bind.
  destruct (sc_lws s2).
  - apply fwp_allow_simple_key. intros s3 R3 L3. pose proof (rl_eq _ _ R3) as E3.
    destruct (fst r) eqn:Er; [apply fwp_fail|]. apply fwp_ret.
    assert (rl s2 <> rl s1) by (intros X; specialize (C2 X); discriminate C2).
    split; lia.
  - apply fwp_ret.
    destruct (fst r) eqn:Er; [apply fwp_fail|]. apply fwp_ret.
    assert (rl s2 <> rl s1) by (intros X; specialize (C2 X); discriminate C2).
    split; lia.
Qed.

Print Assumptions scan_plain_scalar_ok.
