(* C15 prefix stability of the scanner (see ScanPrefix.v): the family of BLOCK SCALARS (Model/SScalar.v) under the
   state relation [SH d] of ScanPrefix.v - port of ScanShiftBlock.v.

     scan_block_scalar_ok : forall F1 F2 literal s1 s2, SH d s1 s2 -> nbz (rn s1 0) -> 4 <= lk s1 ->
        swp d (scan_block_scalar sops F1 literal) (scan_block_scalar sops F2 literal) (bpost d (TS d)) s1 s2

   The premise [4 <= lk s1] is NOT in the contract [shf_scan_block_scalar] of ScanPrefix.v and it is needed: where
   side 1 stops at the end of its input (the empty scalar, or the head of the content loop) side 2 goes on and may
   execute [look 4 ;;; next_is_document_indicator]; the state relation demands EQUAL lookahead counters, so the
   counter of side 1 must be at least 4 already (it is: fetch_next_token does [look 4] before the dispatcher, and
   the counter never decreases).

   Two one-sided facts about the run of side 1 are needed and proved here by a small unary calculus [MO]
   ("the line of the mark and the lookahead counter never decrease"):
     - the line of the mark after the header differs from the line of the indicator (chomping Keep of an EMPTY
       scalar at the end of input tests it),
     - the lookahead counter stays >= 4.
   TWO fuels everywhere. *)
From Coq Require Import List NArith ZArith Bool Arith Lia.
Import ListNotations.
Require Import Parser SBase SPrim SDir SScalar SFetch ScanFrame ScanLoops ScanPrefix ScanPrefixPrim.
Local Open Scope nat_scope.

(* A. one-sided facts: the line of the mark and the lookahead counter never decrease *)
Definition ge_st (s t : bst) : Prop := (m_line (sc_mark s) <= m_line (sc_mark t))%N /\ lk s <= lk t.
Definition MO {A} (m : BM A) : Prop := forall s a t, m s = Ok (a, t) -> ge_st s t.

Lemma ge_refl s : ge_st s s.
Proof. split; [apply N.le_refl|apply Nat.le_refl]. Qed.
Lemma ge_trans s t u : ge_st s t -> ge_st t u -> ge_st s u.
Proof. unfold ge_st. intros [A B] [C D]. split; lia. Qed.

(* [MO] is [Pres ge_st]: the rules of the monad are those of Proofs/ScanFrame.v at this preorder *)
Lemma MO_ret {A} (a : A) : MO (@ret strin A a).
Proof. exact (Pres_ret ge_st ge_refl a). Qed.
Lemma MO_bind {A B} (m : BM A) (f : A -> BM B) : MO m -> (forall a, MO (f a)) -> MO (bind m f).
Proof. exact (Pres_bind ge_st ge_trans m f). Qed.
Lemma MO_fail {A} e mk : MO (@fail strin A e mk). Proof. exact (Pres_fail ge_st e mk). Qed.
Lemma MO_panic {A} n : MO (@panic strin A n). Proof. exact (Pres_panic ge_st n). Qed.
Lemma MO_oof {A} : MO (@oof strin A). Proof. exact (Pres_oof ge_st). Qed.
Lemma MO_get : MO (@get strin). Proof. exact (Pres_get ge_st ge_refl). Qed.
Lemma MO_gets {A} (f : bst -> A) : MO (gets f). Proof. exact (Pres_gets ge_st ge_refl f). Qed.

Ltac mo_closed E :=
  let s := fresh "s" in let a := fresh "a" in let t := fresh "t" in let H := fresh "H" in
  intros s a t H; rewrite E in H; inversion H; subst; clear H;
  unfold ge_st, bump, nb1, bl1, nl1, drop1, dropn; unfold lk, rm; cbn; split; lia.

Lemma MO_look n : MO (look sops n). Proof. mo_closed look_ok. Qed.
Lemma MO_peekn k : MO (peekn sops k). Proof. mo_closed peekn_ok. Qed.
Lemma MO_peek : MO (SPrim.peek sops). Proof. mo_closed peek_ok. Qed.
Lemma MO_in_skip : MO (in_skip sops). Proof. mo_closed in_skip_ok. Qed.
Lemma MO_skip_blank : MO (skip_blank sops). Proof. mo_closed skip_blank_ok. Qed.
Lemma MO_skip_non_blank : MO (skip_non_blank sops). Proof. mo_closed skip_non_blank_ok. Qed.
Lemma MO_adv_mark n : MO (@adv_mark strin n). Proof. mo_closed (adv_mark_ok n). Qed.
Lemma MO_look_ch : MO (look_ch sops).
Proof. unfold look_ch. apply MO_bind; [apply MO_look|intros _; apply MO_peek]. Qed.
Lemma MO_next_is p : MO (next_is sops p).
Proof. unfold next_is. apply MO_bind; [apply MO_peek|intros c; apply MO_ret]. Qed.
Lemma MO_col : MO (@col strin). Proof. apply MO_gets. Qed.
Lemma MO_mark : MO (@mark strin). Proof. apply MO_gets. Qed.
Lemma MO_buf_is_empty : MO (buf_is_empty sops). Proof. apply MO_gets. Qed.
Lemma sbk_line s : m_line (sc_mark (sbk s)) = (m_line (sc_mark s) + 1)%N /\ lk (sbk s) = lk s.
Proof. unfold sbk. destruct ((rn s 0 =? 13) && (rn s 1 =? 10))%N; unfold lk, nl1, bl1, drop1; cbn; split; reflexivity. Qed.
Lemma MO_skip_break : MO (skip_break sops).
Proof.
  intros s a t H. rewrite skip_break_eval in H. destruct (is_break (rn s 0)); [|discriminate]. inversion H; subst.
  destruct (sbk_line s) as [A B]. unfold ge_st. rewrite A, B. split; lia.
Qed.
Lemma MO_raw_read : MO (raw_read sops).
Proof.
  intros s a t H. unfold raw_read in H. cbn [raw_read_non_breakz str_ops] in H.
  destruct (si_chars (sc_in s)) as [|c r]; [inversion H; subst; unfold ge_st, lk; cbn; split; lia|].
  destruct (is_breakz c); inversion H; subst; unfold ge_st, lk; cbn; split; lia.
Qed.
Lemma MO_unroll_nbi : MO (@unroll_non_block_indents strin).
Proof.
  intros s a t H. unfold unroll_non_block_indents, modify in H. inversion H; subst.
  destruct (unroll_nb (sc_indents s) (sc_indent s)) as [ind l]. unfold ge_st, lk; cbn; split; lia.
Qed.
Lemma MO_docind : MO (next_is_document_indicator sops).
Proof. intros s a t H. rewrite docind_eval in H. destruct (Nat.ltb (lk s) 4); [discriminate|]. inversion H; subst. apply ge_refl. Qed.

Create HintDb mo discriminated.
#[local] Hint Resolve MO_ret MO_fail MO_panic MO_oof MO_get MO_gets MO_look MO_peekn MO_peek MO_in_skip MO_skip_blank
  MO_skip_non_blank MO_adv_mark MO_look_ch MO_next_is MO_col MO_mark MO_buf_is_empty MO_skip_break MO_raw_read
  MO_unroll_nbi MO_docind : mo.
Ltac mo :=
  repeat first
    [ solve [auto with mo]
    | apply MO_bind; [|intros ?]
    | match goal with |- MO (if ?b then _ else _) => destruct b end
    | match goal with |- MO (match ?x with _ => _ end) => destruct x end ].

Lemma MO_in_skip_ws_to_eol fuel : forall stb tab ws n, MO (in_skip_ws_to_eol sops fuel stb tab ws n).
Proof.
  induction fuel as [|fuel IH]; intros stb tab ws n; cbn [in_skip_ws_to_eol]; [apply MO_oof|].
  assert (HC : forall f k, MO ((fix comment (f : nat) (k : N) : BM (N * option (bool * bool)) :=
           match f with
           | O => oof
           | S f => bind (look_ch sops) (fun c => if is_breakz c then in_skip_ws_to_eol sops fuel stb tab ws (k + 1)%N
                                    else bind (in_skip sops) (fun _ => comment f (k + 1)%N))
           end) f k)).
  { induction f as [|f IHf]; intros k; [apply MO_oof|]. mo; auto. }
  mo; auto.
Qed.
Lemma MO_skip_ws_to_eol fuel stb : MO (skip_ws_to_eol sops fuel stb).
Proof. unfold skip_ws_to_eol. pose proof (MO_in_skip_ws_to_eol fuel stb false false 0%N). mo; auto. Qed.
Lemma MO_bs_go : forall f acc, MO (bs_go sops f acc).
Proof. induction f as [|f IH]; intros acc; cbn [bs_go]; [apply MO_oof|]. mo; auto. Qed.
Lemma MO_bs_raw : forall f acc n, MO (bs_raw sops f acc n).
Proof. induction f as [|f IH]; intros acc n; cbn [bs_raw]; [apply MO_oof|]. mo; auto. Qed.
Lemma MO_content_line F acc : MO (scan_block_scalar_content_line sops F acc).
Proof. rewrite content_line_eq. pose proof (MO_bs_go F). pose proof (MO_bs_raw F). mo; auto. Qed.
Lemma MO_skip_spaces_to indent cb : forall f, MO (skip_spaces_to sops f indent cb).
Proof. induction f as [|f IH]; cbn [skip_spaces_to]; [apply MO_oof|]. mo; auto. Qed.
Lemma MO_bs_wide F indent : forall f, MO (bs_wide sops F indent f).
Proof. induction f as [|f IH]; cbn [bs_wide]; [apply MO_oof|]. pose proof (MO_skip_spaces_to indent true F). mo; auto. Qed.
Lemma MO_bs_spp F indent : MO (bs_spp sops F indent).
Proof.
  unfold bs_spp. pose proof (MO_skip_spaces_to indent false F). pose proof (MO_bs_wide F indent F). mo; auto.
Qed.
Lemma MO_sbsi F indent : forall f breaks, MO (skip_block_scalar_indent sops F f indent breaks).
Proof.
  induction f as [|f IH]; intros breaks; [apply MO_oof|]. rewrite sbsi_eq. pose proof (MO_bs_spp F indent). mo; auto.
Qed.
Lemma MO_bs_sfl : forall f, MO (bs_sfl sops f).
Proof. induction f as [|f IH]; cbn [bs_sfl]; [apply MO_oof|]. mo; auto. Qed.
Lemma MO_sfli F : forall f maxi breaks, MO (skip_first_line_indent sops F f maxi breaks).
Proof.
  induction f as [|f IH]; intros maxi breaks; [apply MO_oof|]. rewrite sfli_eq. pose proof (MO_bs_sfl F). mo; auto.
Qed.
#[local] Hint Resolve MO_skip_ws_to_eol MO_content_line MO_sbsi MO_sfli : mo.

(* B. auxiliary rules *)
Lemma nls_0 acc : nls 0 acc = acc. Proof. reflexivity. Qed.
Lemma nls_succ n acc : nls (N.succ n) acc = 10%N :: nls n acc.
Proof. unfold nls. apply N.iter_succ. Qed.
Lemma nls_snoc n : nls n [] ++ [10%N] = 10%N :: nls n [].
Proof.
  induction n as [|n IH] using N.peano_ind; [reflexivity|].
  rewrite nls_succ. cbn [app]. rewrite IH. reflexivity.
Qed.
Lemma rev_nls n : rev (nls n []) = nls n [].
Proof.
  induction n as [|n IH] using N.peano_ind; [reflexivity|].
  rewrite nls_succ. cbn [rev]. rewrite IH. apply nls_snoc.
Qed.

Lemma next_is_ok p (s : bst) : next_is sops p s = Ok (p (rn s 0), s). Proof. reflexivity. Qed.
Lemma col_ok (s : bst) : col s = Ok (m_col (sc_mark s), s). Proof. reflexivity. Qed.
Lemma mark_ok (s : bst) : mark s = Ok (sc_mark s, s). Proof. reflexivity. Qed.
Lemma get_ok (s : bst) : get s = Ok (s, s). Proof. reflexivity. Qed.
Lemma ret_ok {A} (a : A) (s : bst) : ret a s = Ok (a, s). Proof. reflexivity. Qed.
Lemma docind_marker (s : bst) : rn s 0 = 46%N -> rn s 1 = 46%N -> rn s 2 = 46%N -> rn s 3 = 10%N -> docind_val s = true.
Proof. intros E0 E1 E2 E3. unfold docind_val, n3are. rewrite E0, E1, E2, E3. reflexivity. Qed.

Section Aux.
Variable d : list chr.
Local Notation bwp := (swp d).

(* a one-sided fact of side 1 added to a relational triple *)
Lemma bwp_mo {A1 A2} (m1 : BM A1) (m2 : BM A2) (Q : A1 -> bst -> A2 -> bst -> Prop) s1 s2 :
  MO m1 -> bwp m1 m2 (fun a1 t1 a2 t2 => ge_st s1 t1 -> Q a1 t1 a2 t2) s1 s2 -> bwp m1 m2 Q s1 s2.
Proof.
  intros HM H. unfold swp in *. destruct (m1 s1) as [[a1 t1]|? ?|?|] eqn:E; auto.
  destruct (m2 s2) as [[a2 t2]|? ?|?|]; auto. apply H. exact (HM _ _ _ E).
Qed.
(* side 2 alone *)
Lemma bwp_assoc_r {A1 A B C} (m1 : BM A1) (m : BM A) (f : A -> BM B) (g : B -> BM C)
  (Q : A1 -> bst -> C -> bst -> Prop) s1 s2 :
  bwp m1 (bind m (fun a => bind (f a) g)) Q s1 s2 -> bwp m1 (bind (bind m f) g) Q s1 s2.
Proof.
  unfold swp, bind. destruct (m1 s1) as [[a1 t1]|? ?|?|]; auto. destruct (m s2) as [[a t]|? ?|?|]; auto.
Qed.
Lemma bwp_docind_r {A1 B} (m1 : BM A1) (f2 : bool -> BM B) (Q : A1 -> bst -> B -> bst -> Prop) s1 s2 :
  docind_val s2 = true -> bwp m1 (f2 true) Q s1 s2 -> bwp m1 (bind (next_is_document_indicator sops) f2) Q s1 s2.
Proof.
  intros E H. unfold swp, bind in *. rewrite docind_eval. destruct (Nat.ltb (lk s2) 4).
  - destruct (m1 s1) as [[? ?]|? ?|?|]; exact I.
  - rewrite E. exact H.
Qed.
Lemma bwp_oof_bind_r {A1 A B} (m1 : BM A1) (f : A -> BM B) (Q : A1 -> bst -> B -> bst -> Prop) s1 s2 :
  bwp m1 (bind (@oof strin A) f) Q s1 s2.
Proof. unfold swp, bind, oof. destruct (m1 s1) as [[? ?]|? ?|?|]; exact I. Qed.
(* side 2 has looked further ahead than asked for: no change *)
Lemma SH_bump_r n s1 s2 : SH d s1 s2 -> n <= lk s1 -> SH d s1 (bump n s2).
Proof.
  intros H Hn. apply (SH_jump d 0 s1 s2); try reflexivity; try exact H; try lia.
  - rewrite lk_bump, (SH_lk H). lia.
  - unfold rst, bump; skel_cbn; sh_fwd H; reflexivity.
  - exact (sh_end H).
Qed.
Lemma rn_bump n (s : bst) i : rn (bump n s) i = rn s i. Proof. reflexivity. Qed.
(* skip_break: the line of the mark grows by one *)
Lemma bwp_skip_break_x (Q : unit -> bst -> unit -> bst -> Prop) s1 s2 :
  SH d s1 s2 ->
  (forall t1 t2, SH d t1 t2 -> is_break (rn s1 0) = true ->
                 m_line (sc_mark t1) = (m_line (sc_mark s1) + 1)%N -> lk t1 = lk s1 -> Q tt t1 tt t2) ->
  bwp (skip_break sops) (skip_break sops) Q s1 s2.
Proof.
  intros H HQ. unfold swp. rewrite !skip_break_eval, (SH_rn0 H), b1_is_break.
  destruct (is_break (rn s1 0)) eqn:E; [|exact I]. destruct (sbk_line s1) as [A B].
  apply HQ; [apply SH_sbk; assumption|reflexivity|exact A|exact B].
Qed.
Lemma breakz_in s1 s2 : SH d s1 s2 -> rm s1 <> [] -> is_breakz (rn s1 0) = true -> is_break (rn s1 0) = true.
Proof.
  intros H NE E. unfold is_breakz in E. apply orb_true_iff in E. destruct E as [E|E]; [exact E|].
  exfalso. apply N.eqb_eq in E. exact (SH_nz d _ _ H NE E).
Qed.
Lemma is_z_in s1 s2 : SH d s1 s2 -> rm s1 <> [] -> is_z (rn s1 0) = false.
Proof. intros H NE. unfold is_z. apply N.eqb_neq. exact (SH_nz d _ _ H NE). Qed.
(* side 2 alone: a unary weakest precondition (errors excluded) *)
Definition rwp {A} (m : BM A) (P : A -> bst -> Prop) (s : bst) : Prop :=
  match m s with Ok (a, t) => P a t | Err _ _ => False | _ => True end.
Lemma bwp_r_bind {A1 A B} (m1 : BM A1) (m : BM A) (f : A -> BM B) (Q : A1 -> bst -> B -> bst -> Prop) s1 s2 :
  rwp m (fun a t => bwp m1 (f a) Q s1 t) s2 -> bwp m1 (bind m f) Q s1 s2.
Proof.
  unfold rwp, swp, bind. destruct (m1 s1) as [[a1 t1]|? ?|?|]; auto.
  destruct (m s2) as [[a t]|? ?|?|]; auto; try tauto.
Qed.
Lemma rwp_bind {A B} (m : BM A) (f : A -> BM B) (P : B -> bst -> Prop) s :
  rwp m (fun a t => rwp (f a) P t) s -> rwp (bind m f) P s.
Proof. unfold rwp, bind. destruct (m s) as [[a t]|? ?|?|]; auto. Qed.
Lemma rwp_step {A} (m : BM A) (P : A -> bst -> Prop) s a t : m s = Ok (a, t) -> P a t -> rwp m P s.
Proof. intros E H. unfold rwp. rewrite E. exact H. Qed.
Lemma rwp_mono {A} (m : BM A) (P P' : A -> bst -> Prop) s : rwp m P s -> (forall a t, P a t -> P' a t) -> rwp m P' s.
Proof. unfold rwp. intros H HP. destruct (m s) as [[a t]|? ?|?|]; auto. Qed.
Lemma rwp_docind (P : bool -> bst -> Prop) s : docind_val s = true -> P true s -> rwp (next_is_document_indicator sops) P s.
Proof. intros E H. unfold rwp. rewrite docind_eval. destruct (Nat.ltb (lk s) 4); [exact I|]. rewrite E. exact H. Qed.
End Aux.

Section Block.
Variable d : list chr.
Local Notation bwp := (swp d).

(* (1) scan_block_scalar_content_line: entered inside side 1's text, stays there *)
Lemma shf_go : forall f1 f2 acc s1 s2, SH d s1 s2 -> rm s1 <> [] ->
  bwp (bs_go sops f1 acc) (bs_go sops f2 acc) (fun a1 t1 a2 t2 => a1 = a2 /\ SH d t1 t2 /\ rm t1 <> []) s1 s2.
Proof.
  induction f1 as [|f1 IH]; intros f2 acc s1 s2 H NE; [exact I|]. destruct f2 as [|f2]; [apply bwp_oof_r|].
  cbn [bs_go]. apply bwp_bind. apply (bwp_buf_is_empty d); [exact H|].
  destruct (Nat.eqb (lk s1) 0); [apply bwp_ret; split; [reflexivity|split; assumption]|].
  apply bwp_bind. apply (bwp_peek d); [exact H|]. rewrite (SH_b1_in d _ _ H NE).
  destruct (is_breakz (rn s1 0)) eqn:Eb; [apply bwp_ret; split; [reflexivity|split; assumption]|].
  apply bwp_bind. apply (bwp_skip_blank d); [exact H|exact Eb|]. intros u1 u2 HU RU.
  apply IH; [exact HU|]. exact (SH_ne_tl d _ _ _ H Eb RU).
Qed.
Lemma shf_raw : forall f1 f2 acc n s1 s2, SH d s1 s2 -> rm s1 <> [] ->
  bwp (bs_raw sops f1 acc n) (bs_raw sops f2 acc n) (fun a1 t1 a2 t2 => a1 = a2 /\ SH d t1 t2 /\ rm t1 <> []) s1 s2.
Proof.
  induction f1 as [|f1 IH]; intros f2 acc n s1 s2 H NE; [exact I|]. destruct f2 as [|f2]; [apply bwp_oof_r|].
  cbn [bs_raw]. apply bwp_bind. apply (bwp_raw_read d); [exact H|exact NE|]. intros c t1 t2 HT _ _ NT _.
  destruct c as [x|].
  - apply IH; assumption.
  - apply bwp_bind. apply (bwp_adv_mark d); [exact HT|intros E; contradiction|]. intros u1 u2 HU RU.
    apply bwp_ret. split; [reflexivity|split; [exact HU|]]. rewrite RU. exact NT.
Qed.
Lemma shf_content_line F1 F2 acc s1 s2 : SH d s1 s2 -> rm s1 <> [] ->
  bwp (scan_block_scalar_content_line sops F1 acc) (scan_block_scalar_content_line sops F2 acc)
      (fun a1 t1 a2 t2 => a1 = a2 /\ SH d t1 t2 /\ rm t1 <> []) s1 s2.
Proof.
  intros H NE. rewrite !content_line_eq.
  apply bwp_bind. eapply bwp_mono; [apply shf_go; assumption|]. intros a t1 a2 t2 (<- & HT & NT).
  apply bwp_bind. apply (bwp_buf_is_empty d); [exact HT|]. destruct (Nat.eqb (lk t1) 0).
  - apply shf_raw; assumption.
  - apply bwp_ret. split; [reflexivity|split; assumption].
Qed.

(* (2) skip_spaces_to: spaces only, lockstep *)
Lemma shf_skip_spaces_to indent cb : forall f1 f2 s1 s2, SH d s1 s2 ->
  bwp (skip_spaces_to sops f1 indent cb) (skip_spaces_to sops f2 indent cb) (bpost d eq) s1 s2.
Proof.
  induction f1 as [|f1 IH]; intros f2 s1 s2 H; [exact I|]. destruct f2 as [|f2]; [apply bwp_oof_r|].
  cbn [skip_spaces_to]. apply bwp_bind.
  apply bwp_mono with (Q := fun (e1 : bool) (t1 : bst) (e2 : bool) (t2 : bst) => e1 = e2 /\ t1 = s1 /\ t2 = s2).
  { destruct cb; [apply (bwp_buf_is_empty d); [exact H|]|apply bwp_ret]; auto. }
  intros e t1 e2 t2 (<- & -> & ->).
  apply bwp_bind. apply (bwp_col d); [exact H|]. cbv beta.
  destruct (e || negb (m_col (sc_mark s1) <? indent)%N); [apply bwp_ret_bpost; [reflexivity|exact H]|].
  apply bwp_bind. apply (bwp_peek d); [exact H|]. b1_norm.
  destruct (N.eqb_spec (rn s1 0) 32) as [E|NE]; [|apply bwp_ret_bpost; [reflexivity|exact H]].
  assert (N0 : nbz (rn s1 0)) by (unfold nbz; rewrite E; reflexivity).
  apply bwp_bind. apply (bwp_skip_blank d); [exact H|exact N0|]. intros u1 u2 HU _. apply IH. exact HU.
Qed.

(* (3) the indentation phase of skip_block_scalar_indent: narrow / wide *)
Lemma shf_wide F1 F2 indent : forall f1 f2 s1 s2, SH d s1 s2 ->
  bwp (bs_wide sops F1 indent f1) (bs_wide sops F2 indent f2) (bpost d eq) s1 s2.
Proof.
  induction f1 as [|f1 IH]; intros f2 s1 s2 H; [exact I|]. destruct f2 as [|f2]; [apply bwp_oof_r|].
  cbn [bs_wide]. apply bwp_bind. apply (bwp_look d); [exact H|]. intros t1 t2 HT _ _ _ _ _.
  eapply (bwp_call_eq d); [apply shf_skip_spaces_to; exact HT|]. intros [] u1 u2 HU.
  apply bwp_bind. apply (bwp_col d); [exact HU|]. cbv beta.
  apply bwp_bind. apply (bwp_buf_is_empty d); [exact HU|]. cbv beta.
  apply bwp_bind.
  apply bwp_mono with (Q := fun (c1 : chr) (v1 : bst) (c2 : chr) (v2 : bst) =>
                              (c2 =? 32)%N = (c1 =? 32)%N /\ v1 = u1 /\ v2 = u2).
  { destruct (Nat.eqb (lk u1) 0); [apply bwp_ret; auto|]. apply (bwp_peek d); [exact HU|]. b1_norm. auto. }
  intros c1 v1 c2 v2 (Ec & -> & ->). rewrite Ec.
  match goal with |- swp _ (if ?b then _ else _) _ _ _ _ => destruct b end.
  - apply bwp_ret_bpost; [reflexivity|exact HU].
  - apply IH. exact HU.
Qed.
Lemma shf_spp F1 F2 indent s1 s2 : SH d s1 s2 ->
  bwp (bs_spp sops F1 indent) (bs_spp sops F2 indent) (bpost d eq) s1 s2.
Proof.
  intros H. unfold bs_spp. destruct (indent <? N.of_nat (bufmaxlen sops - 2))%N.
  - apply bwp_bind. apply (bwp_look d); [exact H|]. intros t1 t2 HT _ _ _ _ _.
    apply shf_skip_spaces_to. exact HT.
  - eapply (bwp_call_eq d); [apply shf_wide; exact H|]. intros [] t1 t2 HT.
    apply (bwp_look d); [exact HT|]. intros u1 u2 HU _ _ _ _ _. unfold bpost. split; [reflexivity|exact HU].
Qed.

(* (4) skip_block_scalar_indent: every empty line ends with [skip_break] *)
Lemma shf_skip_bsi F1 F2 indent : forall f1 f2 breaks s1 s2, SH d s1 s2 ->
  bwp (skip_block_scalar_indent sops F1 f1 indent breaks) (skip_block_scalar_indent sops F2 f2 indent breaks)
      (bpost d eq) s1 s2.
Proof.
  induction f1 as [|f1 IH]; intros f2 breaks s1 s2 H; [exact I|]. destruct f2 as [|f2]; [apply bwp_oof_r|].
  rewrite !sbsi_eq. apply bwp_bind.
  change (Nat.ltb (bufmaxlen sops) 2) with false. cbv iota. apply bwp_ret.
  eapply (bwp_call_eq d); [apply shf_spp; exact H|]. intros [] u1 u2 HU.
  apply bwp_bind. apply (bwp_next_is d); [exact HU|exact b1_is_break|].
  destruct (is_break (rn u1 0)).
  - apply bwp_bind. apply (bwp_skip_break d); [exact HU|]. intros v1 v2 HV _ _. apply IH. exact HV.
  - apply bwp_ret_bpost; [reflexivity|exact HU].
Qed.

(* (5) skip_first_line_indent *)
Lemma shf_sfl : forall f1 f2 s1 s2, SH d s1 s2 -> bwp (bs_sfl sops f1) (bs_sfl sops f2) (bpost d eq) s1 s2.
Proof.
  induction f1 as [|f1 IH]; intros f2 s1 s2 H; [exact I|]. destruct f2 as [|f2]; [apply bwp_oof_r|].
  cbn [bs_sfl]. apply bwp_bind. apply (bwp_look_ch d); [exact H|]. intros u1 u2 HU _ _ _ _. b1_norm.
  destruct (N.eqb_spec (rn u1 0) 32) as [E|NE]; [|apply bwp_ret_bpost; [reflexivity|exact HU]].
  assert (N0 : nbz (rn u1 0)) by (unfold nbz; rewrite E; reflexivity).
  apply bwp_bind. apply (bwp_skip_blank d); [exact HU|exact N0|]. intros v1 v2 HV _. apply IH. exact HV.
Qed.
Lemma shf_sfli F1 F2 : forall f1 f2 maxi breaks s1 s2, SH d s1 s2 ->
  bwp (skip_first_line_indent sops F1 f1 maxi breaks) (skip_first_line_indent sops F2 f2 maxi breaks)
      (bpost d eq) s1 s2.
Proof.
  induction f1 as [|f1 IH]; intros f2 maxi breaks s1 s2 H; [exact I|]. destruct f2 as [|f2]; [apply bwp_oof_r|].
  rewrite !sfli_eq.
  eapply (bwp_call_eq d); [apply shf_sfl; exact H|]. intros [] u1 u2 HU.
  apply bwp_bind. apply (bwp_col d); [exact HU|]. cbv beta.
  apply bwp_bind. apply (bwp_next_is d); [exact HU|exact b1_is_break|].
  destruct (is_break (rn u1 0)).
  - apply bwp_bind. apply (bwp_look d); [exact HU|]. intros v1 v2 HV _ _ _ _ _.
    apply bwp_bind. apply (bwp_skip_break d); [exact HV|]. intros w1 w2 HW _ _. apply IH. exact HW.
  - apply bwp_ret_bpost; [reflexivity|exact HU].
Qed.
(* (6) scan_block_scalar *)
Theorem scan_block_scalar_ok : forall F1 F2 literal s1 s2, SH d s1 s2 -> nbz (rn s1 0) -> 4 <= lk s1 ->
  bwp (scan_block_scalar sops F1 literal) (scan_block_scalar sops F2 literal) (bpost d (TS d)) s1 s2.
Proof.
  intros F1 F2 literal s1 s2 H N0 L4. unfold scan_block_scalar. cbv zeta.
  apply bwp_bind. apply (bwp_mark d); [exact H|]. intros _. rewrite <- (SH_mark H).
  set (start := sc_mark s1).
  assert (G0 : m_line start = m_line (sc_mark s1)) by reflexivity.
  apply bwp_bind. apply bwp_mo; [mo|]. apply (bwp_skip_non_blank d); [exact H|exact N0|]. intros a1 a2 HA RA G1.
  assert (NA : rm a1 <> []) by exact (SH_ne_tl d _ _ _ H N0 RA).
  apply bwp_bind. apply bwp_mo; [mo|]. apply (bwp_unroll_non_block_indents d); [exact HA|]. intros p1 p2 HP RP G2.
  apply bwp_bind. apply bwp_mo; [mo|]. apply (bwp_look_ch d); [exact HP|]. intros c1 c2 HC RC _ _ _ G3.
  assert (NC : rm c1 <> []) by (rewrite RC, RP; exact NA).
  cbv beta. b1_norm.
  (* the header: chomping and indentation indicators, in either order; each character consumed has just been
     tested, so it is neither a break nor NUL *)
  apply bwp_bind. apply bwp_mo; [mo|].
  apply bwp_mono with (Q := fun (a1 : chomping * N) (t1 : bst) (a2 : chomping * N) (t2 : bst) =>
                              a1 = a2 /\ SH d t1 t2 /\ rm t1 <> []).
  { destruct ((rn c1 0 =? 43) || (rn c1 0 =? 45))%N eqn:Epm.
    - assert (Nc : nbz (rn c1 0)) by (nbz_by Epm).
      apply bwp_bind. apply (bwp_skip_non_blank d); [exact HC|exact Nc|]. intros d1 d2 HD RD.
      assert (ND : rm d1 <> []) by exact (SH_ne_tl d _ _ _ HC Nc RD).
      apply bwp_bind. apply (bwp_look d); [exact HD|]. intros e1 e2 HE RE _ _ _ _.
      assert (NE : rm e1 <> []) by (rewrite RE; exact ND).
      apply bwp_bind. apply (bwp_peek d); [exact HE|]. rewrite (SH_b1_in d _ _ HE NE).
      destruct (is_digit (rn e1 0)) eqn:Ed; [|apply bwp_ret; split; [reflexivity|split; assumption]].
      assert (Nd : nbz (rn e1 0)) by (nbz_by Ed).
      destruct (rn e1 0 =? 48)%N; [apply bwp_err_l|].
      apply bwp_bind. apply (bwp_skip_non_blank d); [exact HE|exact Nd|]. intros f1 f2 HF RF.
      apply bwp_ret. split; [reflexivity|split; [exact HF|exact (SH_ne_tl d _ _ _ HE Nd RF)]].
    - destruct (is_digit (rn c1 0)) eqn:Ed; [|apply bwp_ret; split; [reflexivity|split; assumption]].
      assert (Nc : nbz (rn c1 0)) by (nbz_by Ed).
      rewrite (b1_nbz _ Nc).
      destruct (rn c1 0 =? 48)%N; [apply bwp_err_l|].
      apply bwp_bind. apply (bwp_skip_non_blank d); [exact HC|exact Nc|]. intros d1 d2 HD RD.
      assert (ND : rm d1 <> []) by exact (SH_ne_tl d _ _ _ HC Nc RD).
      apply bwp_bind. apply (bwp_look d); [exact HD|]. intros e1 e2 HE RE _ _ _ _.
      assert (NE : rm e1 <> []) by (rewrite RE; exact ND).
      apply bwp_bind. apply (bwp_peek d); [exact HE|]. rewrite (SH_b1_in d _ _ HE NE).
      destruct ((rn e1 0 =? 43) || (rn e1 0 =? 45))%N eqn:Epm2; [|apply bwp_ret; split; [reflexivity|split; assumption]].
      assert (Nd : nbz (rn e1 0)) by (nbz_by Epm2).
      apply bwp_bind. apply (bwp_skip_non_blank d); [exact HE|exact Nd|]. intros f1 f2 HF RF.
      apply bwp_ret. split; [reflexivity|split; [exact HF|exact (SH_ne_tl d _ _ _ HE Nd RF)]]. }
  intros hd g1 hd2 g2 (<- & HG & NG) G4. destruct hd as [chomp increment]. cbv beta iota.
  (* the rest of the header line, and its line break *)
  apply bwp_bind. apply bwp_mo; [mo|]. eapply bwp_mono; [apply (skip_ws_to_eol_ok d); exact HG|].
  intros tw h1 tw2 h2 (_ & HH & NH0) G5. specialize (NH0 NG).
  apply bwp_bind. apply bwp_mo; [mo|]. apply (bwp_look d); [exact HH|]. intros i1 i2 HI RI _ _ _ _ G6.
  assert (NI : rm i1 <> []) by (rewrite RI; exact NH0).
  apply bwp_bind. apply (bwp_peek d); [exact HI|]. rewrite (SH_b1_in d _ _ HI NI).
  destruct (is_breakz (rn i1 0)) eqn:Ebz; cbn [negb]; [|apply bwp_err_l].
  rewrite (breakz_in d _ _ HI NI Ebz).
  apply bwp_bind.
  apply bwp_bind. apply bwp_mo; [mo|]. apply (bwp_look d); [exact HI|]. intros j1 j2 HJ _ _ _ _ _ G7.
  apply bwp_bind. apply (bwp_skip_break_x d); [exact HJ|]. intros k1 k2 HK _ LK1 LK2.
  apply bwp_ret.
  apply bwp_bind. apply bwp_mo; [mo|]. apply (bwp_look_ch d); [exact HK|]. intros q1 q2 HQ _ _ _ _ G8. cbv beta. b1_norm.
  destruct (rn q1 0 =? 9)%N; [apply bwp_err_l|].
  apply bwp_bind. apply bwp_get. cbv beta. sh_sync HQ.
  (* the indentation of the first content line *)
  match goal with |- swp _ (bind (if (?i =? 0)%N then _ else _) _) _ _ _ _ => set (indent0 := i) end.
  apply bwp_bind. apply bwp_mo; [mo|].
  apply bwp_mono with (Q := bpost d eq).
  { destruct (indent0 =? 0)%N.
    - eapply (bwp_call_eq d); [apply shf_sfli; exact HQ|]. intros r l1 l2 HL.
      apply bwp_ret_bpost; [reflexivity|exact HL].
    - eapply (bwp_call_eq d); [apply shf_skip_bsi; exact HQ|]. intros r l1 l2 HL.
      apply bwp_ret_bpost; [reflexivity|exact HL]. }
  intros ib l1 ib2 l2 [<- HL] G9. destruct ib as [indent tbreaks]. cbv beta iota.
  assert (LL : (m_line start < m_line (sc_mark l1))%N /\ 4 <= lk l1).
  { unfold ge_st in *. split; lia. }
  clear G1 G2 G3 G4 G5 G6 G7 G8 G9 LK1 LK2.
  apply bwp_bind. apply (bwp_next_is_raw d); [exact HL|]. cbv beta.
  apply bwp_bind. apply bwp_get. cbv beta. sh_sync HL.
  destruct (N.eq_dec (rn l1 0) 0) as [E0|NZ].
  { (* THE EMPTY SCALAR AT THE END OF INPUT: side 1 returns, side 2 leaves the content loop at once *)
    rewrite E0, b1_0. change (is_z 0%N) with true. change (is_z 46%N) with false. cbv iota.
    destruct (SH_end_col HL E0) as [C0 _]. pose proof (SH_at_end HL E0) as EE. rewrite C0.
    destruct LL as [LL1 LL2].
    apply bwp_r_bind.
    apply rwp_mono with (P := fun (w : bool) (t : bst) => w = false /\ SH d l1 t).
    { destruct (SH_end_rn HL EE) as (R0 & R1 & R2 & R3).
      match goal with |- rwp (if ?b then _ else _) _ _ => destruct b end.
      - apply rwp_bind. eapply rwp_step; [apply look_ok|]. apply rwp_bind.
        apply rwp_docind; [apply docind_marker; rewrite rn_bump; assumption|].
        eapply rwp_step; [apply ret_ok|]. split; [reflexivity|apply SH_bump_r; [exact HL|lia]].
      - eapply rwp_step; [apply ret_ok|]. split; [reflexivity|exact HL]. }
    intros w t2 [-> HT]. cbv iota.
    eapply bwp_step_r; [apply get_ok|]. cbv beta.
    match goal with |- swp _ _ (bind (?g2 F2 [] 0%N tbreaks false) _) _ _ _ =>
      assert (Hexit : forall f2 acc lb tb ldb u2, SH d l1 u2 ->
                rwp (g2 f2 acc lb tb ldb) (fun r t => r = (acc, lb, tb) /\ SH d l1 t) u2) end.
    { intros f2 acc lb tb ldb u2 HU. destruct f2 as [|f2]; [exact I|]. lazy beta iota.
      destruct (SH_end_rn HU EE) as (R0 & R1 & R2 & R3).
      apply rwp_bind. eapply rwp_step; [apply col_ok|]. apply rwp_bind. eapply rwp_step; [apply next_is_ok|].
      rewrite <- (SH_col HU), C0, R0. change (is_z 46%N) with false. rewrite orb_false_r.
      destruct (N.eqb_spec 0 indent) as [Ei|Ei]; cbn [negb].
      - rewrite <- Ei. rewrite N.eqb_refl.
        apply rwp_bind. apply rwp_bind. eapply rwp_step; [apply look_ok|].
        apply rwp_docind; [apply docind_marker; rewrite rn_bump; assumption|]. cbv beta iota.
        eapply rwp_step; [apply ret_ok|]. split; [reflexivity|apply SH_bump_r; [exact HU|lia]].
      - eapply rwp_step; [apply ret_ok|]. split; [reflexivity|exact HU]. }
    apply bwp_r_bind. eapply rwp_mono; [apply Hexit; exact HT|]. intros r t3 [-> HT3]. cbv beta iota.
    destruct (SH_end_rn HT3 EE) as (R0 & _).
    eapply bwp_step_r; [apply next_is_ok|]. cbv beta.
    eapply bwp_step_r; [apply col_ok|]. cbv beta.
    eapply bwp_step_r; [apply mark_ok|]. cbv beta.
    apply bwp_ret. split; [|exact HT3].
    rewrite R0, <- (SH_col HT3), C0, <- (SH_mark HT3), <- (SH_mark HT).
    assert (EL : (m_line (sc_mark l1) =? m_line start)%N = false) by (apply N.eqb_neq; lia).
    rewrite EL. change (is_z 46%N) with false. rewrite !andb_false_r.
    right. exists (if literal then Literal else Folded). eexists _, start, (sc_mark l1).
    split; [destruct literal; reflexivity|]. split; [reflexivity|].
    f_equal. f_equal.
    destruct chomp; cbv beta iota zeta; rewrite ?nls_0.
    - reflexivity.
    - reflexivity.
    - change (0 <? 0)%N with false. cbv iota. rewrite N.add_0_r. apply rev_nls. }
  (* side 1 is not at its end: both sides go on in lockstep *)
  destruct LL as [_ LL2].
  assert (NL : rm l1 <> []) by exact (SH_nonempty NZ).
  rewrite (b1_other _ NZ), (is_z_in d _ _ HL NL).
  (* "wrongly indented" check *)
  apply bwp_bind.
  apply bwp_mono with (Q := fun (w1 : bool) (t1 : bst) (w2 : bool) (t2 : bst) =>
                              w1 = w2 /\ SH d t1 t2 /\ rm t1 <> [] /\ 4 <= lk t1).
  { match goal with |- swp _ (if ?b then _ else _) _ _ _ _ => destruct b end;
      [|apply bwp_ret; split; [reflexivity|split; [exact HL|split; assumption]]].
    apply bwp_bind. apply (bwp_look d); [exact HL|]. intros m1 m2 HM RM _ _ _ LM.
    apply bwp_bind. apply (bwp_next_is_document_indicator d); [exact HM|].
    assert (EA : atend m1 = false) by (unfold atend; rewrite RM; destruct (rm l1); [contradiction|reflexivity]).
    rewrite EA, orb_false_r.
    apply bwp_ret. split; [reflexivity|split; [exact HM|split; [rewrite RM; exact NL|lia]]]. }
  intros wrong m1 w2 m2 (<- & HM & NM & LM). destruct wrong; [apply bwp_err_l|].
  apply bwp_bind. apply bwp_get. cbv beta. sh_sync HM.
  (* the main loop: one content line per round; side 1 may reach its end at the head of a round *)
  apply bwp_bind. apply bwp_mono with (Q := bpost d eq).
  { match goal with |- swp _ (?g1 F1 [] 0%N tbreaks false) (?g2 F2 [] 0%N tbreaks false) _ _ _ =>
      assert (Hgo : forall f1 f2 acc lb tb ldb u1 u2, SH d u1 u2 -> 4 <= lk u1 ->
                      bwp (g1 f1 acc lb tb ldb) (g2 f2 acc lb tb ldb) (bpost d eq) u1 u2) end.
    { induction f1 as [|f1 IH]; intros f2 acc lb tb ldb u1 u2 HU LU; [exact I|].
      destruct f2 as [|f2]; [apply bwp_oof_r|]. lazy beta iota.
      apply bwp_bind. apply (bwp_col d); [exact HU|]. cbv beta.
      apply bwp_bind. apply (bwp_next_is_raw d); [exact HU|]. cbv beta.
      destruct (N.eq_dec (rn u1 0) 0) as [E0|NZ'].
      - (* side 1 at its end: it leaves the loop; so does side 2 (column 0: other indentation, or the marker) *)
        rewrite E0, b1_0. change (is_z 0%N) with true. change (is_z 46%N) with false.
        rewrite orb_true_r, orb_false_r.
        destruct (SH_end_col HU E0) as [C0 _]. pose proof (SH_at_end HU E0) as EE.
        destruct (SH_end_rn HU EE) as (R0 & R1 & R2 & R3). rewrite C0.
        destruct (N.eqb_spec 0 indent) as [Ei|Ei]; cbn [negb].
        + rewrite <- Ei. rewrite N.eqb_refl.
          apply bwp_assoc_r. eapply bwp_step_r; [apply look_ok|].
          apply bwp_docind_r; [apply docind_marker; rewrite rn_bump; assumption|]. cbv beta iota.
          apply bwp_ret. split; [reflexivity|apply SH_bump_r; assumption].
        + apply bwp_ret_bpost; [reflexivity|exact HU].
      - assert (NU : rm u1 <> []) by exact (SH_nonempty NZ').
        rewrite (b1_other _ NZ'), (is_z_in d _ _ HU NU), orb_false_r.
        match goal with |- swp _ (if ?b then _ else _) _ _ _ _ => destruct b end;
          [apply bwp_ret_bpost; [reflexivity|exact HU]|].
        apply bwp_bind.
        apply bwp_mono with (Q := fun (e1 : bool) (t1 : bst) (e2 : bool) (t2 : bst) =>
                                    e1 = e2 /\ SH d t1 t2 /\ rm t1 <> [] /\ 4 <= lk t1).
        { destruct (indent =? 0)%N; [|apply bwp_ret; split; [reflexivity|split; [exact HU|split; assumption]]].
          apply bwp_bind. apply (bwp_look d); [exact HU|]. intros v1 v2 HV RV _ _ _ LV.
          apply (bwp_next_is_document_indicator d); [exact HV|].
          assert (EA : atend v1 = false) by (unfold atend; rewrite RV; destruct (rm u1); [contradiction|reflexivity]).
          rewrite EA, orb_false_r. split; [reflexivity|split; [exact HV|split; [rewrite RV; exact NU|lia]]]. }
        intros de v1 de2 v2 (<- & HV & NV & LV). destruct de; [apply bwp_ret_bpost; [reflexivity|exact HV]|].
        apply bwp_bind. apply (bwp_next_is d); [exact HV|exact b1_is_blank|]. cbv beta.
        apply bwp_bind. apply bwp_mo; [mo|]. eapply bwp_mono; [apply shf_content_line; assumption|].
        intros acc1 w1 acc2 w2 (<- & HW & NW) GW.
        apply bwp_bind. apply (bwp_look d); [exact HW|]. intros x1 x2 HX RX _ _ _ LX.
        apply bwp_bind. apply (bwp_next_is_in d); [exact HX|rewrite RX; exact NW|]. cbv beta.
        destruct (is_z (rn x1 0)); [apply bwp_ret_bpost; [reflexivity|exact HX]|].
        apply bwp_bind. apply (bwp_skip_break_x d); [exact HX|]. intros y1 y2 HY _ _ LY.
        apply bwp_bind. apply bwp_mo; [mo|]. eapply bwp_mono; [apply shf_skip_bsi; exact HY|].
        intros tb1 z1 tb2 z2 [<- HZ] GZ.
        apply IH; [exact HZ|]. unfold ge_st in *. lia. }
    apply Hgo; [exact HM|exact LM]. }
  intros r n1 r2 n2 [<- HN]. destruct r as [[acc lb] tb]. cbv beta iota.
  (* tail chomping: [is_z] of the next character and the column; at the end of side 1 the column is 0 and the
     answer of [is_z] does not matter *)
  apply bwp_bind. apply (bwp_next_is_raw d); [exact HN|]. cbv beta.
  apply bwp_bind. apply (bwp_col d); [exact HN|]. cbv beta.
  apply bwp_bind. apply (bwp_mark d); [exact HN|]. intros _. rewrite <- (SH_mark HN).
  apply bwp_ret. split; [|exact HN]. left.
  destruct (N.eq_dec (rn n1 0) 0) as [E0|NZ'].
  - destruct (SH_end_col HN E0) as [C0 _]. rewrite E0, b1_0, C0.
    assert (X1 : (N.max indent 1 <=? 0)%N = false) by (apply N.leb_gt; lia).
    rewrite X1. change (0 <? 0)%N with false. rewrite !andb_false_r. reflexivity.
  - rewrite (b1_other _ NZ'). reflexivity.
Qed.

End Block.

Check scan_block_scalar_ok.
Print Assumptions scan_block_scalar_ok.
