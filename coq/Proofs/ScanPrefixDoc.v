(* C15, text level: hypothesis (i) [boundary_reached A B] of ScanShiftDoc.v DISCHARGED - prefix stability of the
   scanner at a document-end marker line - and the composition theorem without it.

     prefix_tokens            for every NUL-free text A that ends with a line break (or is empty), whose scan ends
                              properly at flow level 0, and every B: the scanner of  A "...\n" B  delivers, up to the
                              DocumentEnd token of the marker line, the tokens of A alone without StreamEnd - up to
                              [TS]: equal, except that an EMPTY block scalar running into the end of A has the span
                              [indicator, end] in A alone and the empty span [end, end] before the marker line (a finding
                              about the real scanner) - and then stands in the marker configuration at the line break.
     boundary_reached_total   if no token of A is such a block scalar ([no_eof_block A]): [boundary_reached A B].
     text_composition_total   the composition theorem of ScanShiftDoc.v without hypothesis (i). *)
From Coq Require Import List NArith ZArith Bool Arith Lia.
Import ListNotations.
Require Import Parser SBase SPrim SDir SScalar SFetch Pipe C02run DocRun DocShift DocIndep DocIndepRun DocScan LazyScan.
Require Import ScanShift ScanShiftTop ScanShiftDoc.
Require ScanPrefix ScanPrefixTop RejectScan.
Local Open Scope nat_scope.

(* the side conditions, all decidable *)
Definition ends_with_break (A : list chr) : Prop := A = [] \/ is_break (last A 0%N) = true.
Definition nonul (A : list chr) : Prop := Forall (fun c => c <> 0%N) A.
(* the scan of A ends outside every flow collection *)
Definition closed_flow (A : list chr) : Prop :=
  sc_flow_level (ScanPrefixTop.scan_last (str_F A) (4 * str_F A + 20) (init_sc {| si_chars := A; si_look := 0 |})) = 0%N.
(* no token of A is a block scalar made of line feeds only with a non-empty span: the empty block scalar that runs into
   the end of input *)
Definition marker_eqb (a b : marker) : bool :=
  ((m_index a =? m_index b) && (m_line a =? m_line b) && (m_col a =? m_col b))%N.
Definition ok_tok (t : token) : bool :=
  match snd t with
  | TScalar st v => negb (ScanPrefix.blk_style st && forallb (N.eqb 10) v) || marker_eqb (sp_start (fst t)) (sp_end (fst t))
  | _ => true
  end.
Definition no_eof_block (A : list chr) : Prop := forallb ok_tok (fst (str_scan A)) = true.

Lemma marker_eqb_eq a b : marker_eqb a b = true -> a = b.
Proof.
  destruct a, b. unfold marker_eqb. cbn. intros H.
  apply andb_true_iff in H. destruct H as [H H3]. apply andb_true_iff in H. destruct H as [H1 H2].
  apply N.eqb_eq in H1, H2, H3. subst. reflexivity.
Qed.
Lemma forallb_nls n : forallb (N.eqb 10) (nls n []) = true.
Proof.
  unfold nls. induction n as [|n IH] using N.peano_ind; [reflexivity|].
  rewrite N.iter_succ. cbn [forallb]. rewrite IH. reflexivity.
Qed.
Lemma TS_ok d t1 t2 : ScanPrefix.TS d t1 t2 -> ok_tok t1 = true -> t2 = t1.
Proof.
  intros [->|(st & n & a & e & HB & -> & ->)] HO; [reflexivity|].
  unfold ok_tok in HO. cbn [snd fst sp_start sp_end] in HO. rewrite HB, forallb_nls in HO. cbn [andb negb orb] in HO.
  apply marker_eqb_eq in HO. subst. reflexivity.
Qed.
Lemma TSs_ok d l1 l2 : Forall2 (ScanPrefix.TS d) l1 l2 -> forallb ok_tok l1 = true -> l2 = l1.
Proof.
  induction 1 as [|a b l1 l2 H _ IH]; intros HO; [reflexivity|]. cbn [forallb] in HO. apply andb_true_iff in HO.
  destruct HO as [Ha Hl]. rewrite (TS_ok d _ _ H Ha), (IH Hl). reflexivity.
Qed.
Lemma forallb_removelast {A} (f : A -> bool) l : forallb f l = true -> forallb f (removelast l) = true.
Proof.
  induction l as [|a l IH]; [reflexivity|]. cbn [forallb]. intros H. apply andb_true_iff in H. destruct H as [Ha Hl].
  destruct l as [|b l]; [reflexivity|]. change (removelast (a :: b :: l)) with (a :: removelast (b :: l)).
  cbn [forallb]. rewrite Ha. exact (IH Hl).
Qed.

(* the two initial states are related *)
Lemma init_related A B : ends_with_break A -> nonul A ->
  ScanPrefixTop.LI B (init_sc {| si_chars := A; si_look := 0 |}) (init_sc {| si_chars := glue_text A B; si_look := 0 |}).
Proof.
  intros HE HN. unfold ScanPrefixTop.LI. split.
  - constructor.
    + constructor; reflexivity.
    + constructor.
    + reflexivity.
    + exact HE.
    + exact HN.
    + intros _. split; reflexivity.
  - split; [intros t []|]. split; [reflexivity|]. split; apply SkInv_init.
Qed.

Lemma deliver_same : ScanShiftTop.deliver = ScanPrefixTop.deliver.
Proof. reflexivity. Qed.

Lemma boundary_text_lf (sm : bst) B : ScanPrefix.rm sm = 10%N :: B -> boundary_text sm = B.
Proof.
  destruct sm as [[ch lk0] mk tk ss se adj ska sks ind inds fl tp ta lws ifm]. unfold ScanPrefix.rm. cbn [sc_in si_chars].
  intros ->. reflexivity.
Qed.

(* prefix stability, up to the span of an empty block scalar at the end of A *)
Theorem prefix_tokens A B :
  ends_with_break A -> nonul A -> snd (str_scan A) = SEnded -> closed_flow A ->
  exists k spd (sm : bst) l2,
    ScanShiftTop.deliver (str_F (glue_text A B)) k (init_sc {| si_chars := glue_text A B; si_look := 0 |})
      = Some (l2 ++ [(spd, TDocumentEnd)], sm)
    /\ Forall2 (ScanPrefix.TS B) (removelast (fst (str_scan A))) l2
    /\ k <= 4 * str_F (glue_text A B) + 20
    /\ marker_config sm /\ is_break (rn sm 0) = true
    /\ sc_tokens sm = [] /\ sc_token_available sm = false /\ sc_stream_end sm = false /\ (1 <= sc_tokens_parsed sm)%N
    /\ boundary_text sm = B.
Proof.
  intros HE HN HS HC.
  pose proof (str_scan_proper (glue_text A B)) as HP.
  unfold closed_flow in HC. unfold str_scan in HS, HP |- *.
  assert (EF1 : str_F A = S (2 * length A + 9)) by (unfold str_F; lia).
  assert (EF2 : str_F (glue_text A B) = S (2 * length (glue_text A B) + 9)) by (unfold str_F; lia).
  rewrite EF1 in HS, HC |- *. rewrite EF2 in HP |- *.
  destruct (scan_all sops (S (2 * length A + 9)) (4 * S (2 * length A + 9) + 20) (init_sc {| si_chars := A; si_look := 0 |}) [])
    as [toks se] eqn:ES. cbn [snd fst] in *. subst se.
  destruct (ScanPrefixTop.run_rel B _ _ _ _ _ _ [] [] toks (init_related A B HE HN) ES HP HC)
    as (k & l1 & l2 & x & spd & sm & ET & EX & ED & HF & (MC & RM & TK & TA & SE & TP)).
  cbn [rev app] in ET. subst toks. rewrite removelast_last.
  exists (S k), spd, sm, l2. rewrite deliver_same. split; [exact ED|]. split; [exact HF|].
  split.
  { destruct (Nat.le_gt_cases (S k) (4 * S (2 * length (glue_text A B) + 9) + 20)) as [HL|HL]; [exact HL|]. exfalso.
    rewrite (ScanPrefixTop.deliver_fuel _ _ _ [] _ _ _ ED HL) in HP. exact HP. }
  split; [exact MC|]. split.
  { change (rn sm 0) with (ScanPrefix.rn sm 0). unfold ScanPrefix.rn. rewrite RM. reflexivity. }
  split; [exact TK|]. split; [exact TA|]. split; [exact SE|]. split; [exact TP|]. apply boundary_text_lf. exact RM.
Qed.

(* hypothesis (i) of ScanShiftDoc.v *)
Theorem boundary_reached_total A B :
  ends_with_break A -> nonul A -> snd (str_scan A) = SEnded -> closed_flow A -> no_eof_block A -> boundary_reached A B.
Proof.
  intros HE HN HS HC HO.
  destruct (prefix_tokens A B HE HN HS HC) as (k & spd & sm & l2 & ED & HF & REST).
  rewrite (TSs_ok B _ _ HF (forallb_removelast _ _ HO)) in ED.
  exists k, spd, sm. split; [exact ED|exact REST].
Qed.

(* an accepted text scans without error *)
Lemma accepted_scan_ended A evA : run_str A = (evA, PDone) -> snd (str_scan A) = SEnded.
Proof.
  intros HA. pose proof (str_scan_proper A) as HP.
  destruct (snd (str_scan A)) as [|e m|n|] eqn:E; [reflexivity| |destruct HP|destruct HP].
  exfalso. apply (RejectScan.scan_error_rejected A); [left; exists e, m; exact E|rewrite HA; reflexivity].
Qed.

(* the composition theorem without hypothesis (i) *)
Theorem text_composition_total A B evA evB :
  ends_with_break A -> nonul A -> closed_flow A -> no_eof_block A ->
  run_str A = (evA, PDone) -> run_str B = (evB, PDone) ->
  exists evC, run_str (glue_text A B) = (evC, PDone)
              /\ evs_of evC = removelast (evs_of evA) ++ map (shift_ev (count_anchored (evs_of evA))) (tl (evs_of evB)).
Proof.
  intros HE HN HC HO HA HB. apply (text_composition A B evA evB HA HB).
  apply boundary_reached_total; try assumption. eapply accepted_scan_ended; exact HA.
Qed.

Print Assumptions prefix_tokens.
Print Assumptions boundary_reached_total.
Print Assumptions text_composition_total.
