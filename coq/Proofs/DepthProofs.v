(* C11 — lemmas about nesting depth, recursion depth and the heap stack of the pull parser. *)
From Coq Require Import List NArith Bool Lia PeanoNat.
Import ListNotations.
Require Import TokenGrammar BuildDocs LoaderProofs YamlInd.
Require Import Parser SFetch Pipe Drivers Grammar Resolver Loader C02base C02rest C02tail C02run Depth.
Require SBase SPrim Consts TokenStreamProofs.
Local Open Scope nat_scope.

(* 1. nesting depth of event lists *)
Lemma depth_run_app c m a b :
  depth_run c m (a ++ b) = depth_run (fst (depth_run c m a)) (snd (depth_run c m a)) b.
Proof.
  unfold depth_run. rewrite fold_left_app. destruct (fold_left depth_step a (c, m)); reflexivity.
Qed.

Lemma depth_run_cons c m e r : depth_run c m (e :: r) = depth_run (fst (depth_step (c, m) e)) (snd (depth_step (c, m) e)) r.
Proof. unfold depth_run. cbn [fold_left]. destruct (depth_step (c, m) e); reflexivity. Qed.

Lemma depth_step_mono c c' m m' e :
  c <= c' -> m <= m' ->
  fst (depth_step (c, m) e) <= fst (depth_step (c', m') e) /\ snd (depth_step (c, m) e) <= snd (depth_step (c', m') e).
Proof. intros Hc Hm. destruct e; cbn [depth_step fst snd]; lia. Qed.

Lemma depth_run_mono evs : forall c c' m m',
  c <= c' -> m <= m' ->
  fst (depth_run c m evs) <= fst (depth_run c' m' evs) /\ snd (depth_run c m evs) <= snd (depth_run c' m' evs).
Proof.
  induction evs as [|e r IH]; intros c c' m m' Hc Hm; [cbn; lia|].
  rewrite !depth_run_cons. destruct (depth_step_mono c c' m m' e Hc Hm) as [A B]. apply IH; assumption.
Qed.

Lemma depth_run_snd_ge evs : forall c m, m <= snd (depth_run c m evs).
Proof.
  induction evs as [|e r IH]; intros c m; [cbn; lia|]. rewrite depth_run_cons.
  etransitivity; [|apply IH]. destruct e; cbn [depth_step fst snd]; lia.
Qed.

Lemma max_nesting_segment pre used post : max_nesting used <= max_nesting (pre ++ used ++ post).
Proof.
  unfold max_nesting. rewrite depth_run_app.
  destruct (depth_run 0 0 pre) as [c1 m1]. cbn [fst snd]. rewrite depth_run_app.
  destruct (depth_run_mono used 0 c1 0 m1 (Nat.le_0_l _) (Nat.le_0_l _)) as [_ B].
  etransitivity; [exact B|]. destruct (depth_run c1 m1 used) as [c2 m2]. cbn [fst snd]. apply depth_run_snd_ge.
Qed.

(* the events of a tree nest as deep as the tree: the analogue of [ydepth] for event trees *)
Fixpoint tdepth (t : etree) : nat :=
  match t with
  | BuildDocs.TScalar _ _ _ _ | BuildDocs.TAlias _ => 0
  | TSeq _ _ l => list_max (map (fun x => S (tdepth x)) l)
  | TMap _ _ l => list_max (map (fun kv => Nat.max (S (tdepth (fst kv))) (S (tdepth (snd kv)))) l)
  end.

Lemma list_max_cons x l : list_max (x :: l) = Nat.max x (list_max l).
Proof. reflexivity. Qed.

Lemma events_of_depth : forall t c m tail,
  depth_run c m (events_of t ++ tail) = depth_run c (Nat.max m (c + tdepth t)) tail.
Proof.
  induction t as [v st a tg|i|a tg l IH|a tg l IH] using etree_ind2; intros c m tail.
  - cbn [events_of app tdepth]. rewrite depth_run_cons. cbn [depth_step fst snd]. rewrite Nat.add_0_r. reflexivity.
  - cbn [events_of app tdepth]. rewrite depth_run_cons. cbn [depth_step fst snd]. rewrite Nat.add_0_r. reflexivity.
  - cbn [events_of tdepth]. rewrite <- app_comm_cons, depth_run_cons. cbn [depth_step fst snd]. rewrite <- app_assoc.
    assert (G : forall m0 tail0, c <= m0 -> depth_run (S c) m0 (events_items events_of l ++ tail0)
                 = depth_run (S c) (Nat.max m0 (c + list_max (map (fun x => S (tdepth x)) l))) tail0).
    { induction IH as [|x r Hx _ IHr]; intros m0 tail0 Hm.
      - cbn [events_items app map list_max fold_right]. f_equal. lia.
      - cbn [events_items]. rewrite <- app_assoc, Hx, IHr by lia. cbn [map]. rewrite list_max_cons. f_equal. lia. }
    rewrite G by lia. cbn [app]. rewrite depth_run_cons. cbn [depth_step fst snd Nat.pred]. f_equal. lia.
  - cbn [events_of tdepth]. rewrite <- app_comm_cons, depth_run_cons. cbn [depth_step fst snd]. rewrite <- app_assoc.
    assert (G : forall m0 tail0, c <= m0 -> depth_run (S c) m0 (events_pairs events_of l ++ tail0)
                 = depth_run (S c) (Nat.max m0 (c + list_max (map (fun kv => Nat.max (S (tdepth (fst kv))) (S (tdepth (snd kv)))) l))) tail0).
    { induction IH as [|[kx vx] r [Hk Hv] _ IHr]; intros m0 tail0 Hm.
      - cbn [events_pairs app map list_max fold_right]. f_equal. lia.
      - cbn [fst snd] in Hk, Hv. cbn [events_pairs]. rewrite <- !app_assoc, Hk, Hv, IHr by lia. cbn [map fst snd]. rewrite list_max_cons. f_equal. lia. }
    rewrite G by lia. cbn [app]. rewrite depth_run_cons. cbn [depth_step fst snd Nat.pred]. f_equal. lia.
Qed.

Lemma events_docs_depth ds : forall m tail,
  depth_run 0 m (events_docs ds ++ tail) = depth_run 0 (Nat.max m (list_max (map (fun d => tdepth (snd d)) ds))) tail.
Proof.
  induction ds as [|[e t] r IH]; intros m tail.
  - cbn [events_docs app map list_max fold_right]. rewrite Nat.max_0_r. reflexivity.
  - cbn [events_docs]. unfold events_doc. cbn [fst snd map]. rewrite <- app_assoc, <- app_comm_cons, depth_run_cons.
    cbn [depth_step fst snd]. rewrite <- app_assoc, events_of_depth. cbn [app]. rewrite depth_run_cons.
    cbn [depth_step fst snd]. rewrite IH, list_max_cons. f_equal. lia.
Qed.

Lemma stream_of_nesting ds : max_nesting (stream_of ds) = list_max (map (fun d => tdepth (snd d)) ds).
Proof.
  unfold max_nesting, stream_of. rewrite depth_run_cons. cbn [depth_step fst snd]. rewrite events_docs_depth. reflexivity.
Qed.

(* 2. the recursive push loader: recursion depth = entry depth + nesting depth of what it consumed *)
(* [k]: how many collections of its own enclose the deepest node of what was consumed *)
Definition node_claim (fuel : nat) : Prop :=
  forall d evs r m, pl_node fuel d evs = PlDone r m ->
    exists k, m = d + k /\ exists used, evs = used ++ r /\ forall c mx, depth_run c mx used = (c, Nat.max mx (c + k)).
(* load_sequence and load_mapping alike: they consume the rest of a collection that counts as open *)
Definition rest_claim (run : nat -> list event -> pl_res) : Prop :=
  forall d evs r m, run d evs = PlDone r m ->
    exists k, m = d + k /\ exists used, evs = used ++ r /\
      forall c mx, c <= mx -> depth_run (S c) mx used = (c, Nat.max mx (c + k)).

Lemma pl_claims fuel : node_claim fuel /\ rest_claim (pl_sequence fuel) /\ rest_claim (pl_mapping fuel).
Proof.
  induction fuel as [|f [IHn [IHs IHm]]].
  - repeat split; intros d evs r m H; discriminate.
  - split; [|split]; intros d evs r m H.
    + cbn [pl_node] in H. destruct evs as [|e evs]; [discriminate|].
      destruct e; try discriminate.
      * inversion H; subst. exists 0. split; [lia|]. exists [EAlias id]. split; [reflexivity|].
        intros c mx. cbn. rewrite Nat.add_0_r. reflexivity.
      * inversion H; subst. exists 0. split; [lia|]. exists [EScalar v st aid tg]. split; [reflexivity|].
        intros c mx. cbn. rewrite Nat.add_0_r. reflexivity.
      * destruct (IHs _ _ _ _ H) as (k & Hm & used & E & Hrun).
        exists k. split; [exact Hm|]. exists (ESequenceStart aid tg :: used). split; [rewrite E; reflexivity|].
        intros c mx. rewrite depth_run_cons. cbn [depth_step fst snd]. rewrite Hrun by lia. f_equal. lia.
      * destruct (IHm _ _ _ _ H) as (k & Hm & used & E & Hrun).
        exists k. split; [exact Hm|]. exists (EMappingStart aid tg :: used). split; [rewrite E; reflexivity|].
        intros c mx. rewrite depth_run_cons. cbn [depth_step fst snd]. rewrite Hrun by lia. f_equal. lia.
    + cbn [pl_sequence] in H. destruct evs as [|e evs]; [discriminate|].
      assert (Hloop :
        match pl_node f (S d) (e :: evs) with
        | PlDone r0 m0 => match pl_sequence f d r0 with PlDone r' m' => PlDone r' (Nat.max m0 m') | x => x end
        | x => x
        end = PlDone r m ->
        exists k, m = d + k /\ exists used, e :: evs = used ++ r /\
          forall c mx, c <= mx -> depth_run (S c) mx used = (c, Nat.max mx (c + k))).
      { clear H. intros H.
        destruct (pl_node f (S d) (e :: evs)) as [r0 m0| | |] eqn:E1; try discriminate.
        destruct (pl_sequence f d r0) as [r1 m1| | |] eqn:E2; try discriminate.
        inversion H; subst; clear H.
        destruct (IHn _ _ _ _ E1) as (k1 & -> & u1 & A1 & R1).
        destruct (IHs _ _ _ _ E2) as (k2 & -> & u2 & A2 & R2).
        exists (Nat.max (S k1) k2). split; [lia|]. exists (u1 ++ u2). split; [rewrite A1, A2, app_assoc; reflexivity|].
        intros c mx Hc. rewrite depth_run_app, R1. cbn [fst snd]. rewrite R2 by lia. f_equal. lia. }
      destruct e; try (apply Hloop; exact H).
      inversion H; subst. exists 0. split; [lia|]. exists [ESequenceEnd]. split; [reflexivity|].
      intros c mx Hc. cbn. f_equal. lia.
    + cbn [pl_mapping] in H. destruct evs as [|e evs]; [discriminate|].
      assert (Hloop :
        match pl_node f (S d) (e :: evs) with
        | PlDone r0 m0 =>
            match pl_node f (S d) r0 with
            | PlDone r' m' =>
                match pl_mapping f d r' with
                | PlDone r'' m'' => PlDone r'' (Nat.max (Nat.max m0 m') m'')
                | x => x
                end
            | x => x
            end
        | x => x
        end = PlDone r m ->
        exists k, m = d + k /\ exists used, e :: evs = used ++ r /\
          forall c mx, c <= mx -> depth_run (S c) mx used = (c, Nat.max mx (c + k))).
      { clear H. intros H.
        destruct (pl_node f (S d) (e :: evs)) as [r0 m0| | |] eqn:E1; try discriminate.
        destruct (pl_node f (S d) r0) as [r1 m1| | |] eqn:E2; try discriminate.
        destruct (pl_mapping f d r1) as [r2 m2| | |] eqn:E3; try discriminate.
        inversion H; subst; clear H.
        destruct (IHn _ _ _ _ E1) as (k1 & -> & u1 & A1 & R1).
        destruct (IHn _ _ _ _ E2) as (k2 & -> & u2 & A2 & R2).
        destruct (IHm _ _ _ _ E3) as (k3 & -> & u3 & A3 & R3).
        exists (Nat.max (Nat.max (S k1) (S k2)) k3). split; [lia|].
        exists (u1 ++ u2 ++ u3). split; [rewrite A1, A2, A3, !app_assoc; reflexivity|].
        intros c mx Hc. rewrite depth_run_app, R1. cbn [fst snd]. rewrite depth_run_app, R2. cbn [fst snd].
        rewrite R3 by lia. f_equal. lia. }
      destruct e; try (apply Hloop; exact H).
      inversion H; subst. exists 0. split; [lia|]. exists [EMappingEnd]. split; [reflexivity|].
      intros c mx Hc. cbn. f_equal. lia.
Qed.

(* Whenever load_node returns (with whatever fuel): it consumed a well-nested prefix, and the deepest
   chain of load_node activations was the entry depth plus the nesting depth of that prefix. *)
Theorem push_loader_recursion_depth fuel d evs r m :
  pl_node fuel d evs = PlDone r m ->
  exists used, evs = used ++ r /\ open_depth used = 0 /\ m = d + max_nesting used.
Proof.
  intros H. destruct (proj1 (pl_claims fuel) _ _ _ _ H) as (k & -> & used & E & Hrun).
  exists used. split; [exact E|]. unfold open_depth, max_nesting. rewrite (Hrun 0 0). split; reflexivity.
Qed.

(* load_document on the events of a whole stream ([tl]: it starts behind StreamStart): whenever it returns, the deepest
   chain of load_node activations was at most one more than the events nest *)
Theorem push_loader_document_depth fuel evs rest m :
  pl_document fuel (tl evs) = PlDone rest m -> m <= 1 + max_nesting evs.
Proof.
  destruct evs as [|e0 evs]; [discriminate|].
  cbn [tl]. unfold pl_document. destruct evs as [|e1 r]; [discriminate|]. destruct e1; try discriminate.
  destruct (pl_node fuel 1 r) as [r1 m1| | |] eqn:E; try discriminate.
  destruct r1 as [|e2 r2]; [discriminate|]. destruct e2; try discriminate. intros H. inversion H; subst.
  destruct (push_loader_recursion_depth _ _ _ _ _ E) as (used & Er & _ & Em). subst r.
  pose proof (max_nesting_segment [e0; EDocumentStart explicit] used (EDocumentEnd :: rest)) as HS.
  cbn [app] in HS. lia.
Qed.

(* 3. structural recursion over the tree: depth reached = entry depth + depth of the tree *)
Lemma list_max_map_shift {A} (f g : A -> nat) d l :
  Forall (fun x => f x = d + g x) l -> l <> [] -> list_max (map f l) = d + list_max (map g l).
Proof.
  induction 1 as [|x r Hx Hr IH]; intros HN; [congruence|].
  cbn [map list_max fold_right]. fold (list_max (map f r)). fold (list_max (map g r)).
  destruct r as [|y r'].
  - cbn. lia.
  - rewrite IH by discriminate. lia.
Qed.

Theorem walk_depth_is_tree_depth : forall y d, ywalk d y = d + ydepth y.
Proof.
  induction y as [v|l IH|l IH| ] using yaml_ind2; intros d; cbn [ywalk ydepth]; try lia.
  - destruct l as [|x r]; [cbn; lia|].
    rewrite (list_max_map_shift (fun x => ywalk (S d) x) (fun x => S (ydepth x)) d); [lia| |discriminate].
    eapply Forall_impl; [|exact IH]. cbn beta. intros a Ha. rewrite Ha. lia.
  - destruct l as [|x r]; [cbn; lia|].
    rewrite (list_max_map_shift (fun kv => Nat.max (ywalk (S d) (fst kv)) (ywalk (S d) (snd kv)))
                                (fun kv => Nat.max (S (ydepth (fst kv))) (S (ydepth (snd kv)))) d);
      [lia| |discriminate].
    eapply Forall_impl; [|exact IH]. cbn beta. intros a [Ha Hb]. rewrite Ha, Hb. lia.
Qed.

Lemma ydepth_nest_seq n leaf : ydepth (nest_seq n leaf) = n + ydepth leaf.
Proof.
  induction n as [|n IH]; [reflexivity|].
  cbn [nest_seq ydepth map list_max fold_right]. rewrite IH. lia.
Qed.

(* 4. the pull parser: its continuation lives on the heap stack [p_states]; the stack length is tied *)
(*    to the number of constructs currently open in the event sentence (C02's invariant) *)
Definition gframes (g : gstate) : list frame := match g with GStream stk => stk | _ => [] end.
Definition gdepth (g : gstate) : nat := length (gframes g).

Lemma cont_frames_len s : cont_ok s = true \/ s = SDocumentEnd -> 1 <= length (cont_frames s) <= 2.
Proof. intros [H| ->]; [destruct s; try discriminate H|]; cbn; lia. Qed.

Lemma rooted_frames stk : Rooted stk -> length stk <= length (stack_frames stk) <= 2 * length stk.
Proof.
  induction 1 as [|s r Hc HR IH].
  - cbn. lia.
  - unfold stack_frames in *. cbn [flat_map]. rewrite app_length. cbn [length].
    pose proof (cont_frames_len s (or_introl Hc)). lia.
Qed.

Lemma cur_frames_len st a : cur_frames st = Some a -> length a <= 2.
Proof. destruct st; cbn; intros H; inversion H; cbn; lia. Qed.

(* heap stack of the pull parser <= open constructs of the sentence so far <= 2 * stack + 2 *)
Lemma inv_stack_bounds p g : Inv p g -> length (p_states p) <= gdepth g <= 2 * length (p_states p) + 2.
Proof.
  unfold Inv, InvS, gdepth.
  destruct (p_state p);
    try (intros [-> ->]; cbn; lia);
    intros [HR [a [Ha ->]]]; cbn [gframes]; rewrite app_length;
    pose proof (rooted_frames _ HR); pose proof (cur_frames_len _ _ Ha); lia.
Qed.

(* the acceptor's stack: collection frames + at most one document frame at the bottom *)
Definition is_coll (f : frame) : bool := match f with FSeq | FMapKey | FMapVal => true | _ => false end.
Definition is_doc (f : frame) : bool := negb (is_coll f).
Definition wf_frames (stk : list frame) : Prop :=
  exists cs ds, stk = cs ++ ds /\ forallb is_coll cs = true /\ (ds = [] \/ ds = [FDoc] \/ ds = [FDocDone]).

Lemma wf_len stk : wf_frames stk -> length stk <= S (length (filter is_coll stk)).
Proof.
  intros (cs & ds & -> & Hc & Hd). rewrite filter_app, !app_length.
  assert (length (filter is_coll cs) = length cs).
  { clear Hd. induction cs as [|x r IH]; [reflexivity|]. cbn in Hc. apply andb_prop in Hc as [A B].
    cbn [filter]. rewrite A. cbn [length]. rewrite IH by exact B. reflexivity. }
  destruct Hd as [-> | [-> | ->]]; cbn; lia.
Qed.

Lemma filter_len_le {A} (f : A -> bool) l : length (filter f l) <= length l.
Proof. induction l as [|x r IH]; [apply le_n|]. cbn [filter]. destruct (f x); cbn [length]; lia. Qed.

Definition colls (g : gstate) : nat := length (filter is_coll (gframes g)).
Definition wf_g (g : gstate) : Prop := wf_frames (gframes g).

Lemma wf_cons_coll f stk : is_coll f = true -> wf_frames stk -> wf_frames (f :: stk).
Proof.
  intros Hf (cs & ds & -> & Hc & Hd). exists (f :: cs), ds. repeat split; auto. cbn. rewrite Hf, Hc. reflexivity.
Qed.

Lemma wf_tail f stk : is_coll f = true -> wf_frames (f :: stk) -> wf_frames stk.
Proof.
  intros Hf (cs & ds & E & Hc & Hd). destruct cs as [|x cs].
  - cbn in E. subst ds. destruct Hd as [H | [H | H]]; inversion H; subst; discriminate.
  - cbn in E. inversion E; subst. cbn in Hc. apply andb_prop in Hc as [_ B]. exists cs, ds. auto.
Qed.

Lemma complete_wf stk stk' :
  complete stk = Some stk' -> wf_frames stk -> wf_frames stk' /\ length (filter is_coll stk') = length (filter is_coll stk).
Proof.
  destruct stk as [|f r]; [discriminate|].
  destruct f; cbn [complete]; intros H; inversion H; subst; clear H; intros W.
  - split; [exact W | reflexivity].
  - split; [|reflexivity]. apply wf_cons_coll; [reflexivity|]. eapply wf_tail; [|exact W]. reflexivity.
  - split; [|reflexivity]. apply wf_cons_coll; [reflexivity|]. eapply wf_tail; [|exact W]. reflexivity.
  - split; [|reflexivity]. destruct W as (cs & ds & E & Hc & Hd). destruct cs as [|x cs].
    + cbn in E. subst ds. destruct Hd as [Hd | [Hd | Hd]]; inversion Hd; subst.
      exists [], [FDocDone]. repeat split; auto.
    + cbn in E. inversion E; subst. cbn in Hc. discriminate.
Qed.

(* one event: well-formedness of the acceptor stack is kept, and the number of collection frames moves
   exactly like the running counter of [depth_step] *)
Lemma gstep_colls g e g' :
  gstep g e = Some g' -> wf_g g -> wf_g g' /\ forall m, colls g' = fst (depth_step (colls g, m) e).
Proof.
  unfold wf_g, colls.
  destruct e; destruct g as [|stk|]; cbn [gstep on_stream depth_step fst gframes]; try discriminate.
  - intros H; inversion H; subst. intros _. split; [exists [], []; cbn; auto|reflexivity].
  - destruct stk; [|discriminate]. intros H; inversion H; subst. intros _. split; [exists [], []; cbn; auto|reflexivity].
  - destruct stk; [|discriminate]. intros H; inversion H; subst. intros _.
    split; [exists [], [FDoc]; cbn; auto|reflexivity].
  - destruct stk as [|f [|? ?]]; try discriminate; destruct f; try discriminate.
    intros H; inversion H; subst. intros _. split; [exists [], []; cbn; auto|reflexivity].
  - destruct (complete stk) as [stk'|] eqn:C; [|discriminate]. cbn [option_map]. intros H; inversion H; subst.
    intros W. destruct (complete_wf _ _ C W) as [A B]. cbn [gframes]. split; [exact A|intros; exact B].
  - destruct (complete stk) as [stk'|] eqn:C; [|discriminate]. cbn [option_map]. intros H; inversion H; subst.
    intros W. destruct (complete_wf _ _ C W) as [A B]. cbn [gframes]. split; [exact A|intros; exact B].
  - destruct (node_ok stk); [|discriminate]. intros H; inversion H; subst. intros W. cbn [gframes].
    split; [apply wf_cons_coll; [reflexivity|exact W]|reflexivity].
  - destruct stk as [|f r]; [discriminate|]. destruct f; try discriminate.
    destruct (complete r) as [r'|] eqn:C; [|discriminate]. cbn [option_map]. intros H; inversion H; subst.
    intros W. assert (W' : wf_frames r) by (eapply wf_tail; [|exact W]; reflexivity).
    destruct (complete_wf _ _ C W') as [A B]. cbn [gframes]. split; [exact A|]. intros _. rewrite B. reflexivity.
  - destruct (node_ok stk); [|discriminate]. intros H; inversion H; subst. intros W. cbn [gframes].
    split; [apply wf_cons_coll; [reflexivity|exact W]|reflexivity].
  - destruct stk as [|f r]; [discriminate|]. destruct f; try discriminate.
    destruct (complete r) as [r'|] eqn:C; [|discriminate]. cbn [option_map]. intros H; inversion H; subst.
    intros W. assert (W' : wf_frames r) by (eapply wf_tail; [|exact W]; reflexivity).
    destruct (complete_wf _ _ C W') as [A B]. cbn [gframes]. split; [exact A|]. intros _. rewrite B. reflexivity.
Qed.

Lemma grun_colls evs : forall g g' c m,
  grun g evs = Some g' -> wf_g g -> colls g = c -> wf_g g' /\ colls g' = fst (depth_run c m evs).
Proof.
  induction evs as [|e r IH]; intros g g' c m H W Hc.
  - cbn in H. inversion H; subst. auto.
  - cbn [grun] in H. destruct (gstep g e) as [g1|] eqn:E; [|discriminate].
    destruct (gstep_colls _ _ _ E W) as [W1 C1].
    rewrite depth_run_cons. subst c.
    eapply IH; [exact H|exact W1|]. rewrite (C1 m). reflexivity.
Qed.

(* states the pull parser can reach from its initial state, with the events delivered so far *)
Inductive reach (p0 : parser) : parser -> list event -> Prop :=
| reach_init : reach p0 p0 []
| reach_step p evs e sp p' :
    reach p0 p evs -> p_state p <> SEnd -> state_machine p = Parser.Ok ((e, sp), p') -> reach p0 p' (evs ++ [e]).

Lemma reach_inv toks keep p evs :
  reach (init_parser toks keep) p evs -> exists g, grun GInit evs = Some g /\ Inv p g.
Proof.
  induction 1 as [|p evs e sp p' HR [g [Hg HI]] HNE HS].
  - exists GInit. split; [reflexivity|apply init_inv].
  - pose proof (state_machine_post p g HI HNE) as HP. rewrite HS in HP. destruct HP as [g' [Hs HI']].
    exists g'. split; [|exact HI']. rewrite grun_app, Hg. cbn [grun]. rewrite Hs. reflexivity.
Qed.

(* For EVERY token list: in every reachable state, the heap stack of the pull parser holds at most one
   entry per collection currently open in the delivered events, plus one (the document); and the stack
   does grow with the nesting: it holds at least (open - 2) / 2 entries. *)
Theorem pull_stack_bounded_by_open_depth toks keep p evs :
  reach (init_parser toks keep) p evs ->
  length (p_states p) <= open_depth evs + 1 /\ open_depth evs <= 2 * length (p_states p) + 2.
Proof.
  intros HR. destruct (reach_inv _ _ _ _ HR) as [g [Hg HI]].
  pose proof (inv_stack_bounds _ _ HI) as [B1 B2].
  assert (W0 : wf_g GInit) by (exists [], []; cbn; auto).
  destruct (grun_colls evs GInit g 0 0 Hg W0 eq_refl) as [W C].
  unfold open_depth. rewrite <- C. unfold colls.
  pose proof (wf_len _ W) as L. unfold gdepth in *.
  assert (length (filter is_coll (gframes g)) <= length (gframes g)) by apply filter_len_le.
  lia.
Qed.

(* one step moves the number of open collections by at most one *)
Lemma depth_step_delta c m e : fst (depth_step (c, m) e) <= S c /\ c <= S (fst (depth_step (c, m) e)).
Proof. destruct e; cbn; lia. Qed.

(* 5. the witness family through the parser model: block nesting of EVERY depth is accepted *)
Definition mkp (keep : bool) (toks : list token) (c : option token) (stk : list pstate) (st : pstate) : parser :=
  {| p_toks := toks; p_token := c; p_states := stk; p_state := st;
     p_anchors := []; p_anchor_id := 1%N; p_tags := []; p_keep_tags := keep |}.

Definition evsp (l : list event) : list (event * span) := map (fun e => (e, sp0)) l.

Lemma first_entry_step n keep rest stk :
  state_machine (mkp keep (tk TBlockEntry :: nhd n :: rest) (Some (tk TBlockSequenceStart)) stk SBlockSequenceFirstEntry)
  = parse_node (mkp keep rest (Some (nhd n)) (SBlockSequenceEntry :: stk) SBlockSequenceFirstEntry) true false.
Proof. destruct n; reflexivity. Qed.

Lemma seq_end_step keep rest c stk :
  state_machine (mkp keep (tk TBlockEnd :: rest) None (c :: stk) SBlockSequenceEntry)
  = Parser.Ok ((ESequenceEnd, sp0), mkp keep rest None stk c).
Proof. reflexivity. Qed.

Lemma node_run : forall n keep rest c stk st,
  exists first p1,
    parse_node (mkp keep (ntl n rest) (Some (nhd n)) (c :: stk) st) true false = Parser.Ok ((first, sp0), p1)
    /\ forall fuel se acc,
         parse_all (2 * n + fuel) p1 se ((first, sp0) :: acc)
         = parse_all fuel (mkp keep rest None stk c) se (rev (evsp (node_evs n)) ++ acc).
Proof.
  induction n as [|n IH]; intros keep rest c stk st.
  - exists leaf_ev, (mkp keep rest None stk c). split; [reflexivity|]. intros fuel se acc. reflexivity.
  - exists (ESequenceStart 0%N None),
           (mkp keep (ntl (S n) rest) (Some (tk TBlockSequenceStart)) (c :: stk) SBlockSequenceFirstEntry).
    split; [reflexivity|]. intros fuel se acc.
    replace (2 * S n + fuel) with (S (2 * n + S fuel)) by lia.
    rewrite parse_all_S. cbn [mkp p_state]. unfold step_result.
    cbn [ntl]. rewrite first_entry_step.
    destruct (IH keep (tk TBlockEnd :: rest) SBlockSequenceEntry (c :: stk) SBlockSequenceFirstEntry)
      as (first & p1 & Hp & Hrun).
    rewrite Hp, Hrun.
    rewrite parse_all_S. cbn [mkp p_state]. unfold step_result. rewrite seq_end_step.
    f_equal. cbn [node_evs]. unfold evsp. cbn [map]. rewrite map_app. cbn [map rev].
    rewrite rev_app_distr. cbn [rev app]. rewrite <- !app_assoc. reflexivity.
Qed.

Lemma stream_start_step keep rest :
  state_machine (init_parser (tk TStreamStart :: rest) keep)
  = Parser.Ok ((EStreamStart, sp0), mkp keep rest None [] SImplicitDocumentStart).
Proof. reflexivity. Qed.

Lemma doc_start_step d keep rest :
  state_machine (mkp keep (nhd d :: rest) None [] SImplicitDocumentStart)
  = Parser.Ok ((EDocumentStart false, sp0), mkp keep rest (Some (nhd d)) [SDocumentEnd] SBlockNode).
Proof. destruct d; reflexivity. Qed.

Lemma doc_end_step keep :
  state_machine (mkp keep [tk TStreamEnd] None [] SDocumentEnd)
  = Parser.Ok ((EDocumentEnd, sp0), mkp keep [] (Some (tk TStreamEnd)) [] SDocumentStart).
Proof. destruct keep; reflexivity. Qed.

Lemma stream_end_step keep :
  state_machine (mkp keep [] (Some (tk TStreamEnd)) [] SDocumentStart)
  = Parser.Ok ((EStreamEnd, sp0), mkp keep [] None [] SEnd).
Proof. reflexivity. Qed.

Lemma seq_tokens_run d keep se fuel :
  parse_all (2 * d + 6 + fuel) (init_parser (seq_tokens d) keep) se [] = (evsp (seq_events d), PDone).
Proof.
  unfold seq_tokens.
  replace (2 * d + 6 + fuel) with (S (S (S (2 * d + S (S (S fuel)))))) by lia.
  rewrite parse_all_S. cbn [init_parser p_state]. unfold step_result. rewrite stream_start_step.
  rewrite parse_all_S. cbn [mkp p_state]. unfold step_result. rewrite doc_start_step.
  rewrite parse_all_S. cbn [mkp p_state]. unfold step_result.
  change (state_machine (mkp keep (ntl d [tk TStreamEnd]) (Some (nhd d)) [SDocumentEnd] SBlockNode))
    with (parse_node (mkp keep (ntl d [tk TStreamEnd]) (Some (nhd d)) [SDocumentEnd] SBlockNode) true false).
  destruct (node_run d keep [tk TStreamEnd] SDocumentEnd [] SBlockNode) as (first & p1 & Hp & Hrun).
  rewrite Hp, Hrun.
  rewrite parse_all_S. cbn [mkp p_state]. unfold step_result. rewrite doc_end_step.
  rewrite parse_all_S. cbn [mkp p_state]. unfold step_result. rewrite stream_end_step.
  rewrite parse_all_S. cbn [mkp p_state].
  f_equal. unfold seq_events, evsp. cbn [rev app map]. rewrite !map_app. cbn [map].
  rewrite rev_app_distr, rev_involutive. cbn [rev app]. rewrite <- !app_assoc. reflexivity.
Qed.

Lemma ntl_length n rest : length (ntl n rest) = 3 * n + length rest.
Proof.
  revert rest; induction n as [|n IH]; intros rest; [reflexivity|].
  cbn [ntl length]. rewrite IH. cbn [length]. lia.
Qed.

Lemma seq_tokens_length d : length (seq_tokens d) = 3 * d + 3.
Proof. unfold seq_tokens. cbn [length]. rewrite ntl_length. cbn [length]. lia. Qed.

Lemma repeat_snoc_cons {A} (x : A) n r : repeat x n ++ x :: r = x :: repeat x n ++ r.
Proof. change (x :: r) with ([x] ++ r). rewrite app_assoc, <- repeat_cons. reflexivity. Qed.

(* the family is the flat stream  StreamStart (BlockSequenceStart BlockEntry)^d Scalar BlockEnd^d StreamEnd *)
Lemma nhd_ntl_flat n rest :
  nhd n :: ntl n rest
  = flat_map (fun _ => [tk TBlockSequenceStart; tk TBlockEntry]) (repeat tt n) ++ tk leaf_tok :: repeat (tk TBlockEnd) n ++ rest.
Proof.
  revert rest; induction n as [|n IH]; intros rest; [reflexivity|].
  cbn [nhd ntl]. rewrite IH. cbn [repeat flat_map app]. rewrite repeat_snoc_cons. reflexivity.
Qed.

Lemma seq_tokens_is_flat d : seq_tokens d = seq_tokens_flat d.
Proof. unfold seq_tokens, seq_tokens_flat. rewrite nhd_ntl_flat. reflexivity. Qed.

(* the parser model accepts it (driver entry point [parse_tokens]: fuel 4 * tokens + 40) *)
Lemma seq_tokens_accepted d keep se : parse_tokens (seq_tokens d) se keep = (evsp (seq_events d), PDone).
Proof.
  unfold parse_tokens. rewrite seq_tokens_length.
  replace (4 * (3 * d + 3) + 40) with (2 * d + 6 + (10 * d + 46)) by lia.
  apply (seq_tokens_run d keep se).
Qed.

Lemma evs_of_evsp l : evs_of (evsp l) = l.
Proof. unfold evs_of, evsp. rewrite map_map. cbn. apply map_id. Qed.

(* the family is the flattening of a tree: its nesting depth and what it loads to follow from the theorems about trees *)
Fixpoint ntree (n : nat) : etree :=
  match n with
  | O => BuildDocs.TScalar leaf_text Plain 0%N None
  | S k => TSeq 0%N None [ntree k]
  end.

Lemma seq_events_tree d : seq_events d = stream_of [(false, ntree d)].
Proof.
  assert (E : forall n, node_evs n = events_of (ntree n)).
  { induction n as [|n IH]; [reflexivity|]. cbn [node_evs ntree events_of events_items]. rewrite IH, app_nil_r. reflexivity. }
  unfold seq_events, stream_of, events_docs, events_doc. rewrite E. cbn [fst snd]. rewrite app_nil_r. cbn [app].
  rewrite <- app_assoc. reflexivity.
Qed.

Lemma seq_events_depth d : max_nesting (seq_events d) = d.
Proof.
  rewrite seq_events_tree, stream_of_nesting. cbn [map snd list_max fold_right]. rewrite Nat.max_0_r.
  induction d as [|d IH]; [reflexivity|]. cbn [ntree tdepth map list_max fold_right]. rewrite IH. lia.
Qed.

(* the recursive push loader on the family: d + 1 nested activations of load_node *)
Lemma pl_node_family n : forall fuel d tail,
  pl_node (2 * n + 1 + fuel) d (node_evs n ++ tail) = PlDone tail (d + n).
Proof.
  induction n as [|n IH]; intros fuel d tail.
  - cbn. f_equal. lia.
  - replace (2 * S n + 1 + fuel) with (S (S (2 * n + 1 + fuel))) by lia.
    cbn [node_evs app pl_node]. rewrite <- app_assoc. cbn [app].
    assert (Hne : forall k t, exists e r, node_evs k ++ t = e :: r /\ e <> ESequenceEnd).
    { intros k t. destruct k; cbn; eexists; eexists; split; try reflexivity; discriminate. }
    destruct (Hne n (ESequenceEnd :: tail)) as (e & r & He & Hn).
    cbn [pl_sequence]. rewrite He. destruct e; try congruence; rewrite <- He; rewrite IH;
      (replace (2 * n + 1 + fuel) with (S (2 * n + fuel)) by lia); cbn [pl_sequence]; f_equal; lia.
Qed.

Lemma pl_document_family d fuel :
  pl_document (2 * d + 1 + fuel) (EDocumentStart false :: node_evs d ++ [EDocumentEnd; EStreamEnd])
  = PlDone [EStreamEnd] (1 + d).
Proof. cbn [pl_document]. rewrite pl_node_family. reflexivity. Qed.

(* the loader model (heap stacks, no recursion) builds a tree of depth d from the family *)
Definition leaf_val : yaml := value_of leaf_text Plain None.

Lemma load_events_family d :
  load_events (seq_events d) l0
  = LOk {| l_docs := [nest_seq d leaf_val]; l_stack := []; l_keys := []; l_anchors := [] |}.
Proof.
  assert (E : forall n m, build m (ntree n) = (nest_seq n leaf_val, m)).
  { induction n as [|n IH]; intros m; [reflexivity|]. cbn [ntree build build_items]. rewrite IH. reflexivity. }
  rewrite seq_events_tree, loader_refines_spec. cbn [build_docs snd]. rewrite E. reflexivity.
Qed.

Lemma family_tree_depth d : ydepth (nest_seq d leaf_val) = d /\ forall k, ywalk k (nest_seq d leaf_val) = k + d.
Proof.
  assert (H : ydepth (nest_seq d leaf_val) = d).
  { rewrite ydepth_nest_seq. unfold leaf_val, value_of. destruct (parse_from_cow_and_metadata _ _ _); cbn; lia. }
  split; [exact H|]. intros k. rewrite walk_depth_is_tree_depth, H. reflexivity.
Qed.

(* 6. flow nesting: the scanner's flow_level counter cannot pass FLOW_LEVEL_MAX *)
(*    (Gen/Consts.v: generated from the declared type of Scanner::flow_level, u8 -> 255) *)
Section Flow.
Context {I : Type}.
Local Open Scope N_scope.

(* increase_flow_level (scanner.rs ~1466, checked_add): below the limit the level grows by one and stays
   within the limit; at the limit the call fails with error site 45 ("recursion limit exceeded") *)
Lemma increase_flow_level_spec (s : SBase.sc I) :
  SBase.sc_flow_level s <= Consts.FLOW_LEVEL_MAX ->
  match SPrim.increase_flow_level s with
  | SBase.Ok (_, s') =>
      SBase.sc_flow_level s < Consts.FLOW_LEVEL_MAX /\
      SBase.sc_flow_level s' = SBase.sc_flow_level s + 1 /\
      SBase.sc_flow_level s' <= Consts.FLOW_LEVEL_MAX
  | SBase.Err site m => site = 45 /\ m = SBase.sc_mark s /\ SBase.sc_flow_level s = Consts.FLOW_LEVEL_MAX
  | _ => False
  end.
Proof.
  intros Hle. unfold SPrim.increase_flow_level, SBase.bind, SBase.get, SBase.put.
  destruct (SBase.sc_flow_level s =? Consts.FLOW_LEVEL_MAX) eqn:E.
  - apply N.eqb_eq in E. auto.
  - apply N.eqb_neq in E. cbn [SBase.sc_flow_level SBase.set_fl SBase.set_struct]. lia.
Qed.

Lemma increase_flow_level_at_limit (s : SBase.sc I) :
  SBase.sc_flow_level s = Consts.FLOW_LEVEL_MAX ->
  SPrim.increase_flow_level s = SBase.Err 45 (SBase.sc_mark s).
Proof.
  intros H. unfold SPrim.increase_flow_level, SBase.bind, SBase.get. rewrite H, N.eqb_refl. reflexivity.
Qed.

(* decrease_flow_level never raises the level *)
Lemma decrease_flow_level_spec (s : SBase.sc I) :
  match SPrim.decrease_flow_level s with
  | SBase.Ok (_, s') => SBase.sc_flow_level s' <= SBase.sc_flow_level s
  | _ => True
  end.
Proof.
  unfold SPrim.decrease_flow_level, SBase.bind, SBase.get, SBase.put, SBase.ret, SBase.panic.
  destruct (0 <? SBase.sc_flow_level s) eqn:E.
  - destruct (SBase.sc_sks s); [trivial|]. cbn [SBase.sc_flow_level SBase.set_sks SBase.set_fl SBase.set_struct]. lia.
  - lia.
Qed.
End Flow.

(* 7. headline statements *)
(* "the parser model accepts no token stream nested deeper than B" *)
Definition block_nesting_bounded (B : nat) : Prop :=
  forall toks se keep,
    snd (parse_tokens toks se keep) = PDone -> max_nesting (evs_of (fst (parse_tokens toks se keep))) <= B.

Lemma block_family_accepted d keep se :
  length (seq_tokens_flat d) = 3 * d + 3
  /\ parse_tokens (seq_tokens_flat d) se keep = (evsp (seq_events d), PDone)
  /\ max_nesting (seq_events d) = d.
Proof.
  rewrite <- seq_tokens_is_flat. split; [apply seq_tokens_length|]. split; [apply seq_tokens_accepted|].
  apply seq_events_depth.
Qed.

Lemma block_nesting_unbounded : forall B, ~ block_nesting_bounded B.
Proof.
  intros B H. specialize (H (seq_tokens_flat (S B)) SEnded false).
  destruct (block_family_accepted (S B) false SEnded) as (_ & E & D).
  rewrite E in H. cbn [fst snd] in H. rewrite evs_of_evsp, D in H. specialize (H eq_refl). lia.
Qed.

(* consequences of an accepted sentence of depth B for the recursive consumers: the push loader, a traversal of the loaded tree *)
Lemma recursion_unbounded :
  forall B, exists toks evs fuel rest m y,
    parse_tokens toks SEnded false = (evsp evs, PDone)
    /\ pl_document fuel (tl evs) = PlDone rest m /\ B < m
    /\ load_events evs l0 = LOk {| l_docs := [y]; l_stack := []; l_keys := []; l_anchors := [] |}
    /\ B < ywalk 1 y.
Proof.
  intros B. exists (seq_tokens_flat B), (seq_events B), (2 * B + 1 + 0), [EStreamEnd], (1 + B), (nest_seq B leaf_val).
  split; [apply block_family_accepted|]. split; [apply pl_document_family|]. split; [lia|].
  split; [apply load_events_family|]. rewrite (proj2 (family_tree_depth B)). lia.
Qed.

(* executable reachability, for examples *)
Fixpoint run_steps (n : nat) (p : parser) (evs : list event) : option (parser * list event) :=
  match n with
  | O => Some (p, evs)
  | S k =>
      match p_state p with
      | SEnd => None
      | _ => match state_machine p with
             | Parser.Ok ((e, _), p') => run_steps k p' (evs ++ [e])
             | _ => None
             end
      end
  end.

Lemma run_steps_reach p0 n : forall p evs p' evs',
  reach p0 p evs -> run_steps n p evs = Some (p', evs') -> reach p0 p' evs'.
Proof.
  induction n as [|n IH]; intros p evs p' evs' HR H.
  - cbn in H. inversion H; subst. exact HR.
  - cbn [run_steps] in H.
    assert (HNE : p_state p <> SEnd -> reach p0 p' evs').
    { intros HNE. destruct (state_machine p) as [[[e sp] q]|?|?] eqn:E.
      - destruct (p_state p) eqn:ES; try (eapply IH; [eapply reach_step; [eassumption|congruence|eassumption]|exact H]). discriminate.
      - destruct (p_state p); discriminate.
      - destruct (p_state p); discriminate. }
    destruct (p_state p) eqn:ES; first [apply HNE; discriminate | discriminate].
Qed.

(* 8. family A, "[ ? ] , [ ? ] , ... [ ? ] ]]]": since c5ad60c flow_sequence_entry_mapping_key no longer  *)
(*    consumes the "]" that ends the empty key, so the first "[ ? ]" is a complete document and whatever  *)
(*    follows it ("," or "]") is rejected: the former flow-limit bypass is an error VALUE at every depth  *)
Definition null_ev : event := EScalar [126%N] Plain 0%N None.        (* empty_scalar: "~" *)

(* the events delivered before the error: one sequence holding one pair with an empty key and value *)
Definition qflow_prefix_events : list event :=
  [EStreamStart; EDocumentStart false; ESequenceStart 0%N None; EMappingStart 0%N None; null_ev; null_ev;
   EMappingEnd; ESequenceEnd; EDocumentEnd].

(* "[ ? ]" followed by a flow entry or a flow sequence end, followed by anything *)
Lemma qflow_head_rejected (x : tok) rest keep se fuel :
  x = TFlowEntry \/ x = TFlowSequenceEnd ->
  parse_all (10 + fuel) (init_parser (tk TStreamStart :: qflow_group ++ tk x :: rest) keep) se []
  = (evsp qflow_prefix_events, PParseErr 3 mk00).
Proof.
  intros [-> | ->]; destruct keep; reflexivity.
Qed.

Lemma qflow_tokens_shape d :
  1 <= d -> exists x rest, (x = TFlowEntry \/ x = TFlowSequenceEnd)
                           /\ qflow_tokens d = tk TStreamStart :: qflow_group ++ tk x :: rest.
Proof.
  intros H. destruct d as [|[|k]]; [lia| |].
  - exists TFlowSequenceEnd, [tk TStreamEnd]. split; [auto|reflexivity].
  - exists TFlowEntry. eexists. split; [auto|]. unfold qflow_tokens. cbn [Nat.pred qflow_groups app]. reflexivity.
Qed.

Lemma qflow_groups_length k : length (qflow_groups k) = 4 * k.
Proof. induction k as [|k IH]; [reflexivity|]. cbn [qflow_groups qflow_group app length]. rewrite IH. lia. Qed.

Lemma qflow_tokens_length d : 1 <= d -> length (qflow_tokens d) = 5 * d + 1.
Proof.
  intros H. destruct d as [|k]; [lia|]. unfold qflow_tokens. cbn [Nat.pred length].
  rewrite !app_length, qflow_groups_length, repeat_length. cbn [qflow_group length]. lia.
Qed.

(* the scanner's flow level along the stream never exceeds 1 (unchanged by the repair) *)
Lemma flow_fold_groups k : forall m,
  fold_left tok_flow_step (qflow_groups k) (0, m) = (0, match k with O => m | S _ => Nat.max m 1 end).
Proof.
  induction k as [|k IH]; intros m; [reflexivity|].
  cbn [qflow_groups qflow_group app fold_left]. 
  change (tok_flow_step (0, m) (tk TFlowSequenceStart)) with (1, Nat.max m 1).
  change (tok_flow_step (1, Nat.max m 1) (tk TKey)) with (1, Nat.max m 1).
  change (tok_flow_step (1, Nat.max m 1) (tk TFlowSequenceEnd)) with (0, Nat.max m 1).
  change (tok_flow_step (0, Nat.max m 1) (tk TFlowEntry)) with (0, Nat.max m 1).
  rewrite IH. f_equal. destruct k; lia.
Qed.

(* a run of flow collection ends lowers the level, down to 0 *)
Lemma flow_fold_closers t n : real_flow_open t = false -> flow_close t = true ->
  forall c m, fold_left tok_flow_step (repeat t n) (c, m) = (c - n, m).
Proof.
  intros Ho Hc. induction n as [|n IH]; intros c m; [cbn; f_equal; lia|]. cbn [repeat fold_left].
  replace (tok_flow_step (c, m) t) with (Nat.pred c, m) by (unfold tok_flow_step; rewrite Ho, Hc; reflexivity).
  rewrite IH. f_equal. lia.
Qed.

Lemma qflow_tokens_flow_level d : 1 <= d -> tok_flow_max (qflow_tokens d) = 1.
Proof.
  intros H. destruct d as [|k]; [lia|]. unfold tok_flow_max, tok_flow_run, qflow_tokens. cbn [Nat.pred].
  cbn [fold_left]. change (tok_flow_step (0, 0) (tk TStreamStart)) with (0, 0).
  rewrite !fold_left_app, flow_fold_groups.
  cbn [qflow_group fold_left].
  set (m := match k with O => 0 | S _ => Nat.max 0 1 end).
  change (tok_flow_step (0, m) (tk TFlowSequenceStart)) with (1, Nat.max m 1).
  change (tok_flow_step (1, Nat.max m 1) (tk TKey)) with (1, Nat.max m 1).
  change (tok_flow_step (1, Nat.max m 1) (tk TFlowSequenceEnd)) with (0, Nat.max m 1).
  rewrite flow_fold_closers by reflexivity. cbn [fold_left].
  change (tok_flow_step (0 - S k, Nat.max m 1) (tk TStreamEnd)) with (0 - S k, Nat.max m 1).
  cbn [snd]. subst m. destruct k; lia.
Qed.

(* every member of the family is rejected with the same parse error (site 3: "did not find expected
   <document start>") after the same nine events, which nest 2 deep *)
Lemma qflow_rejected d keep se :
  1 <= d ->
  length (qflow_tokens d) = 5 * d + 1
  /\ tok_flow_max (qflow_tokens d) = 1
  /\ parse_tokens (qflow_tokens d) se keep = (evsp qflow_prefix_events, PParseErr 3 mk00)
  /\ max_nesting qflow_prefix_events = 2.
Proof.
  intros H. split; [apply qflow_tokens_length; exact H|]. split; [apply qflow_tokens_flow_level; exact H|].
  split; [|reflexivity].
  destruct (qflow_tokens_shape d H) as (x & rest & Hx & E).
  unfold parse_tokens. rewrite qflow_tokens_length by exact H.
  replace (4 * (5 * d + 1) + 40) with (10 + (20 * d + 34)) by lia.
  change {| p_toks := qflow_tokens d; p_token := None; p_states := []; p_state := SStreamStart;
            p_anchors := []; p_anchor_id := 1%N; p_tags := []; p_keep_tags := keep |}
    with (init_parser (qflow_tokens d) keep).
  rewrite E. apply qflow_head_rejected. exact Hx.
Qed.

(* 9. family B, "[ : : ... : }}...}]": one synthetic (empty-span) FlowMappingStart per bare ':' — the *)
(*    scanner's flow level never exceeds 1, the parser model ACCEPTS the stream and nests d + 1 deep. *)
(*    The stream is the token list of a layout tree (Spec/TokenGrammar.v), so the parser theorem of C03  *)
(*    (Proofs/TokenStreamProofs.v) gives its events *)
(* d mappings, each the value of the one pair (no key) of the mapping around it; the innermost value is left out *)
Fixpoint cmaps (d : nat) : ltree :=
  match d with
  | O => LNone
  | S k => LFMap no_props [(false, LNone, (true, cmaps k))] false
  end.
Definition cflow_tree (d : nat) : ltree := LFSeq no_props [Datatypes.inl (cmaps d)] false.

Definition null_tree : etree := BuildDocs.TScalar [126%N] Plain 0%N None.
Fixpoint cmaps_events (d : nat) : etree :=
  match d with
  | O => null_tree
  | S k => TMap 0%N None [(null_tree, cmaps_events k)]
  end.

Lemma cflow_tree_wf d : wf_root false (cflow_tree (S d)) = true.
Proof.
  assert (H : wf false false (cmaps (S d)) = true).
  { induction d as [|d IH]; [reflexivity|]. cbn [cmaps wf forallb fment_wf is_none orb] in *. rewrite IH. reflexivity. }
  unfold wf_root, cflow_tree. cbn [is_none wf forallb fsent_wf]. rewrite H. reflexivity.
Qed.

Lemma cmaps_tokens d : forall rest,
  map snd (flat_map (fun _ => cflow_pair) (repeat tt d) ++ repeat (tk TFlowMappingEnd) d ++ rest)
  = tokens_of (cmaps d) ++ map snd rest.
Proof.
  induction d as [|d IH]; intros rest; [reflexivity|].
  cbn [repeat flat_map cflow_pair app map snd tk]. rewrite <- repeat_snoc_cons, IH.
  cbn [cmaps tokens_of props_toks no_props pr_anchor pr_tag pr_tag_first opt_tok app map fsep ent_toks flag flat_map snd tk].
  rewrite !app_nil_r, <- app_assoc. reflexivity.
Qed.

Lemma cflow_tokens_tree d : map snd (cflow_tokens d) = wrap false false (tokens_of (cflow_tree d)).
Proof.
  unfold cflow_tokens, wrap, cflow_tree. cbn [map snd tk]. rewrite cmaps_tokens.
  cbn [tokens_of props_toks no_props pr_anchor pr_tag pr_tag_first opt_tok app map fsep fsent_toks flag flat_map snd tk].
  rewrite !app_nil_r, <- app_assoc. reflexivity.
Qed.

(* no anchors, no tags: numbering leaves the environment alone and nothing is unbound *)
Lemma cmaps_number d : forall e l,
  number [] e (pre_events (cmaps d) ++ l) = events_of (cmaps_events d) ++ number [] e l
  /\ bound [] e (pre_events (cmaps d) ++ l) = bound [] e l.
Proof.
  induction d as [|d IH]; intros e l; [split; reflexivity|].
  cbn [cmaps pre_events flat_map ent_pre app]. rewrite app_nil_r, <- !app_assoc.
  cbn [app number bound number1 bound1 env_step TokenGrammar.reg no_props pr_anchor pr_tag pnull fst snd tag_ev tag_ok andb].
  destruct (IH e (PMapEnd :: l)) as [A B]. rewrite A, B. split; [|reflexivity].
  cbn [number number1 cmaps_events events_of events_pairs null_tree app]. rewrite app_nil_r, <- app_assoc. reflexivity.
Qed.

Lemma cflow_tree_events d :
  TokenGrammar.events_of (cflow_tree d) = events_of (TSeq 0%N None [cmaps_events d])
  /\ bound [] env0 (pre_events (cflow_tree d)) = true.
Proof.
  unfold TokenGrammar.events_of, cflow_tree. cbn [pre_events flat_map fsent_pre]. rewrite app_nil_r.
  cbn [number bound number1 bound1 env_step TokenGrammar.reg no_props pr_anchor pr_tag fst snd tag_ev tag_ok andb].
  destruct (cmaps_number d env0 [PSeqEnd]) as [A B]. rewrite A, B. split; [|reflexivity].
  cbn [events_of events_items number number1]. rewrite app_nil_r. reflexivity.
Qed.

Lemma cflow_tokens_accepted k keep se :
  evs_of (fst (parse_tokens (cflow_tokens (S k)) se keep)) = stream_of [(false, TSeq 0%N None [cmaps_events (S k)])]
  /\ snd (parse_tokens (cflow_tokens (S k)) se keep) = PDone.
Proof.
  destruct (cflow_tree_events (S k)) as [E B].
  destruct (TokenStreamProofs.parse_tokens_wrap (cflow_tree (S k)) false false (cflow_tokens (S k)) keep se
              (cflow_tree_wf k) B (cflow_tokens_tree (S k))) as [H D].
  split; [|exact D]. unfold evs_of. rewrite H, E. unfold wrap_events, stream_of, events_docs, events_doc.
  cbn [fst snd]. rewrite app_nil_r. cbn [app]. rewrite <- app_assoc. reflexivity.
Qed.

(* ... while the events nest d + 1 deep (the sequence and d mappings) *)
Lemma cmaps_events_depth d : tdepth (cmaps_events d) = d.
Proof.
  induction d as [|d IH]; [reflexivity|]. cbn [cmaps_events tdepth map list_max fold_right fst snd null_tree]. rewrite IH. lia.
Qed.

(* the scanner's flow level along the stream: only the '[' counts *)
Lemma flow_fold_cpairs d : forall c m,
  fold_left tok_flow_step (flat_map (fun _ => cflow_pair) (repeat tt d)) (c, m) = (c, m).
Proof.
  induction d as [|d IH]; intros c m; [reflexivity|].
  cbn [repeat flat_map cflow_pair app fold_left].
  change (tok_flow_step (c, m) (tk TFlowMappingStart)) with (c, m).
  change (tok_flow_step (c, m) (tk TValue)) with (c, m). apply IH.
Qed.

Lemma cflow_tokens_flow_level d : tok_flow_max (cflow_tokens d) = 1.
Proof.
  unfold tok_flow_max, tok_flow_run, cflow_tokens. cbn [fold_left].
  change (tok_flow_step (0, 0) (tk TStreamStart)) with (0, 0).
  change (tok_flow_step (0, 0) (tk TFlowSequenceStart)) with (1, 1).
  rewrite !fold_left_app, flow_fold_cpairs, flow_fold_closers by reflexivity. cbn [fold_left].
  change (tok_flow_step (1 - d, 1) (tk TFlowSequenceEnd)) with (Nat.pred (1 - d), 1).
  reflexivity.
Qed.

(* "an accepted token stream whose flow level stays within L nests at most L (+1) deep" is false for every L >= 1 *)
Definition flow_limit_bounds_nesting (L : nat) : Prop :=
  forall toks se keep,
    tok_flow_max toks <= L -> snd (parse_tokens toks se keep) = PDone ->
    max_nesting (evs_of (fst (parse_tokens toks se keep))) <= L + 1.

Lemma flow_limit_does_not_bound_nesting : forall L, 1 <= L -> ~ flow_limit_bounds_nesting L.
Proof.
  intros L HL HB. specialize (HB (cflow_tokens (S L)) SEnded false).
  destruct (cflow_tokens_accepted L false SEnded) as [E D].
  rewrite cflow_tokens_flow_level, E, stream_of_nesting in HB. specialize (HB HL D).
  cbn [map snd tdepth list_max fold_right] in HB. rewrite cmaps_events_depth in HB. lia.
Qed.
