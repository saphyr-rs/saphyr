(* The token-level skeleton (ScanPairFetch.v) read in the calculus [rwp] of ScanRel.v: from the six character-level
   contracts, [next_token] over the string input and over the buffered input (any capacity >= 8) from related
   states returns the same token in related states ([srpost]), or the same error at the same marker. *)
From Coq Require Import List NArith ZArith Bool Arith Lia.
Import ListNotations.
Require Import SBase SFetch SBuf ScanRel.
Require ScanPairFetch.
Local Open Scope nat_scope.

(* the postcondition of every token-level function: equal values, related states *)
Definition srpost {A} : A -> st1 -> A -> st2 -> Prop := Qe (fun _ t1 t2 => SR t1 t2).

Lemma rwp_rpost_srpost {A} k (m1 : M1 A) (m2 : M2 A) s1 s2 : rwp m1 m2 (rpost k) s1 s2 -> rwp m1 m2 srpost s1 s2.
Proof.
  intros H. apply (rwp_pair 0). apply (ScanPairFetch.rwp_rpost_srpost false 0 k). apply (rwp_pair 0). exact H.
Qed.

Section RelFetch.
Variable cap : nat.
Hypothesis cap_ge : 8 <= cap.
Notation sops := str_ops.
Notation bops := (buf_ops cap).

Hypothesis H_dir : rel_scan_directive cap.
Hypothesis H_tag : rel_scan_tag cap.
Hypothesis H_anchor : rel_scan_anchor cap.
Hypothesis H_flow : rel_scan_flow_scalar cap.
Hypothesis H_plain : rel_scan_plain_scalar cap.
Hypothesis H_block : rel_scan_block_scalar cap.

Theorem rwp_next_token F s1 s2 : SR s1 s2 ->
  rwp (next_token sops F) (next_token bops F) srpost s1 s2.
Proof using cap_ge H_dir H_tag H_anchor H_flow H_plain H_block.
  intros HS. apply (rwp_pair 0).
  apply (ScanPairFetch.rwp_next_token cap cap_ge false 0); [apply rel_scan_directive_pair; exact H_dir|
    apply rel_scan_tag_pair; exact H_tag|apply rel_scan_anchor_pair; exact H_anchor|
    apply rel_scan_flow_scalar_pair; exact H_flow|apply rel_scan_plain_scalar_pair; exact H_plain|
    apply rel_scan_block_scalar_pair; exact H_block|discriminate|exact HS].
Qed.

End RelFetch.

Print Assumptions rwp_next_token.
