(* C04 in document context, part 1: scan_flow_scalar on a presentation of the specification whose follower continues on a
   later line -- blanks, then a line feed or the end of the input -- the statement of C04_quoted_full
   (Proofs/QuotedFoldProofs.v) for this follower class WITH the input that is left ([drop_leading rest]: the blanks behind the
   closing quote are consumed, the line feeds are not).  The loop lemmas of QuotedFoldProofs.v ([segs_run],
   [seg_from_head_m], [at_quote]) give the state at the closing quote exactly; only the last phase ([finish_flow_scalar]) is
   re-run here with a conclusion that keeps the final input.  Of the follower only the first character behind the blanks and
   (single-quoted) the character behind the closing quote matter ([scan_flow_scalar_brk]); spaces and line feeds up to the end
   of the input are the case [scan_flow_scalar_ws]. *)
From Coq Require Import List NArith ZArith Bool Arith Lia.
Import ListNotations.
Require Import Parser SBase SPrim SScalar FlowFold FlowScalarProofs PlainScalarProofs QuotedFoldProofs.
Open Scope N_scope.
Open Scope mon_scope.

Definition ws_only (rest : list N) : bool := forallb (fun c => (c =? 10) || (c =? 32)) rest.

Lemma ws_only_drop rest : ws_only rest = true -> ws_only (drop_leading rest) = true.
Proof.
  induction rest as [|c r IH]; [reflexivity|]. cbn [drop_leading]. intros H. destruct (is_sp c); [|exact H].
  cbn [ws_only forallb] in H. apply andb_prop in H as [_ H]. exact (IH H).
Qed.
Lemma ws_only_head rest : ws_only rest = true -> nth 0 rest 0 = 0 \/ nth 0 rest 0 = 10 \/ nth 0 rest 0 = 32.
Proof.
  destruct rest as [|c r]; [left; reflexivity|]. cbn [ws_only forallb nth]. intros H. apply andb_prop in H as [H _].
  apply orb_prop in H as [H|H]; apply N.eqb_eq in H; auto.
Qed.
(* the head of what is left behind the blanks: the end of the input or a line feed *)
Lemma ws_only_drop_head rest : ws_only rest = true -> nth 0 (drop_leading rest) 0 = 0 \/ nth 0 (drop_leading rest) 0 = 10.
Proof.
  intros H. destruct (split_leading rest) as [_ [_ Hhd]]. pose proof (ws_only_head _ (ws_only_drop rest H)) as Hc.
  destruct (drop_leading rest) as [|c r]; [left; reflexivity|]. cbn [nth hd] in *.
  destruct Hc as [Hc|[Hc|Hc]]; auto. subst c. discriminate Hhd.
Qed.

Lemma ws_only_follower flow multi rest : ws_only rest = true -> quoted_follower_ok flow multi rest = true.
Proof.
  intros H. unfold quoted_follower_ok. rewrite hd_nth. destruct (ws_only_drop_head rest H) as [-> | ->]; reflexivity.
Qed.
Lemma ws_only_close rest : ws_only rest = true -> (nth 0 rest 0 =? 39) = false.
Proof. intros H. destruct (ws_only_head rest H) as [-> |[-> | ->]]; reflexivity. Qed.

Definition brk_head (rest : list N) : Prop := nth 0 (drop_leading rest) 0 = 0 \/ nth 0 (drop_leading rest) 0 = 10.

Section FinishWs.
Variable s0 : sc strin.
Notation ops := str_ops.
Notation st := (st_with s0).

Lemma finish_brk F single start str rest l m w :
  brk_head rest -> (length rest + 2 <= F)%nat ->
  exists sp s',
    finish_flow_scalar F single start str (st (quote_of single :: rest) l m w)
    = Ok ((sp, TScalar (style_of single) (rev str)), s') /\ sp_start sp = start /\ si_chars (sc_in s') = drop_leading rest.
Proof.
  intros Hws HF. unfold finish_flow_scalar.
  mstep (skip_non_blank_st s0 (quote_of single :: rest) l m w). cbn [tl].
  unfold skip_ws_to_eol. rewrite bind_assoc.
  destruct (split_leading rest) as [Hsplit [Hbs Hhd]].
  set (bs := take_leading rest) in *. set (r := drop_leading rest) in *.
  assert (Hlen : length rest = (length bs + length r)%nat) by (rewrite Hsplit at 1; apply app_length).
  assert (Hr : nth 0 r 0 = 0 \/ nth 0 r 0 = 10) by exact Hws.
  assert (Hskip : exists k tab ws l',
             in_skip_ws_to_eol ops F SkipYes false false 0 (st rest l (adv 1 m) false) = Ok ((k, Some (tab, ws)), st r l' (adv 1 m) false)).
  { rewrite Hsplit.
    destruct (ws_blanks s0 bs (F - length bs) false false 0 r l (adv 1 m) false Hbs) as [l1 E1].
    replace (length bs + (F - length bs))%nat with F in E1 by lia.
    replace (F - length bs)%nat with (S (F - length bs - 1)) in E1 by lia.
    rewrite ws_stop in E1; [ | destruct Hr as [-> | ->]; reflexivity ..].
    eexists; eexists; eexists; eexists. exact E1. }
  destruct Hskip as [k [tab [ws [l' E]]]].
  mstep E. cbn [fst snd]. rewrite bind_assoc.
  assert (E2 : adv_mark k (st r l' (adv 1 m) false) = Ok (tt, st r l' (adv k (adv 1 m)) false)) by reflexivity.
  mstep E2. rewrite (bind_Ok (ret (tab, ws)) _ _ _ _ eq_refl).
  unfold peek. mstep (peekn_st 0 s0 r l' (adv k (adv 1 m)) false).
  mstep (get_st s0 r l' (adv k (adv 1 m)) false).
  cbn [sc_flow_level sc_mark st_with].
  match goal with |- context [if ?c then _ else _] => assert (Hacc : c = true) end.
  { destruct Hr as [-> | ->]; rewrite orb_true_r; reflexivity. }
  rewrite Hacc. eexists; eexists. split; [destruct single; reflexivity|]. split; reflexivity.
Qed.
Lemma finish_ws F single start str rest l m w :
  ws_only rest = true -> (length rest + 2 <= F)%nat ->
  exists sp s',
    finish_flow_scalar F single start str (st (quote_of single :: rest) l m w)
    = Ok ((sp, TScalar (style_of single) (rev str)), s') /\ sp_start sp = start /\ si_chars (sc_in s') = drop_leading rest.
Proof. intros Hws. apply finish_brk, ws_only_drop_head, Hws. Qed.
End FinishWs.

(* C04_quoted_full for a follower whose first non-blank character is a line feed (or that is blank up to the end of the
   input), with the input that is left *)
Theorem scan_flow_scalar_brk :
  forall (F : nat) (single : bool) (n : nat) (first : list dq_item) (more : list (brk_layout * list dq_item))
         (rest : list N) (s : sc strin),
    (if single then sq_layout_wf n first more else dq_layout_wf n first more) = true ->
    let src := if single then sq_render first more else dq_render first more in
    si_chars (sc_in s) = quote_of single :: src ++ quote_of single :: rest ->
    brk_head rest -> (single = true -> (nth 0 rest 0 =? 39) = false) ->
    (sc_indent s < Z.of_nat n)%Z ->
    (sc_indent s <= Z.of_N (m_col (sc_mark s)) + 1)%Z ->
    (2 * length (si_chars (sc_in s)) + 10 <= F)%nat ->
    exists sp s',
      scan_flow_scalar str_ops F single s = Ok ((sp, TScalar (style_of single) (dq_text first more)), s')
      /\ sp_start sp = sc_mark s /\ si_chars (sc_in s') = drop_leading rest.
Proof.
  intros F single n first more rest s Hwf src Hsrc Hws Hclose Hn Hcol HF.
  assert (Hlay : forallb (iwf single) first = true /\ seg_rest_wf (iwf single) (isrc single) n first more = true
                 /\ (single = true -> forallb (fun p => negb (bl_escaped (fst p))) more = true)
                 /\ src = ssrc single first ++ rest_src single more).
  { subst src. destruct single.
    - unfold sq_layout_wf in Hwf. apply andb_prop in Hwf. destruct Hwf as [Hwf H3]. apply andb_prop in Hwf. destruct Hwf as [H1 H2].
      repeat split; auto.
    - unfold dq_layout_wf in Hwf. apply andb_prop in Hwf. destruct Hwf as [H1 H2]. repeat split; auto. discriminate. }
  destruct Hlay as [Hfirst [Hrest [Hsq Esrc]]]. clearbody src. subst src. clear Hwf.
  set (q := quote_of single) in *.
  assert (Hrun : scan_flow_scalar str_ops F single s
                 = (start <- mark ;; skip_non_blank str_ops ;;; str <- loop F single start F [] false 0 [] ;; finish_flow_scalar F single start str)
                     (st_with s (q :: (ssrc single first ++ rest_src single more) ++ q :: rest) (si_look (sc_in s)) (sc_mark s) (sc_lws s))).
  { rewrite scan_flow_scalar_phases. f_equal. rewrite <- Hsrc. apply st_with_id. }
  rewrite Hrun. clear Hrun.
  set (l := si_look (sc_in s)). set (m := sc_mark s). set (w := sc_lws s).
  mstep (mark_st s (q :: (ssrc single first ++ rest_src single more) ++ q :: rest) l m w).
  mstep (skip_non_blank_st s (q :: (ssrc single first ++ rest_src single more) ++ q :: rest) l m w). cbn [tl].
  rewrite <- app_assoc.
  rewrite Hsrc in HF. cbn [length] in HF. rewrite !app_length in HF. cbn [length] in HF.
  destruct (segs_run F single m s n Hn rest Hclose more first Hrest Hsq) as [[x' [tail' [Eafter [Hsep' Hend']]]] Hruns].
  assert (Hml : (length more <= length (rest_src single more))%nat).
  { clear. induction more as [|[b seg] more IH]; [cbn; lia|]. cbn [rest_src flat_map length fst snd]. fold (rest_src single more).
    rewrite !app_length. assert (1 <= length (render_brk b))%nat by (unfold render_brk; rewrite !app_length; pose proof (nl_src_len (bl_nl b)); lia). lia. }
  assert (Hsl : (length first <= length (ssrc single first))%nat).
  { clear. induction first as [|i first IH]; [cbn; lia|]. cbn [ssrc flat_map length]. fold (ssrc single first). rewrite app_length.
    assert (1 <= length (isrc single i))%nat; [|lia].
    destruct single, i as [c| |]; cbn [isrc sq_src item_src length]; try lia. destruct (c =? 39); cbn [length]; lia. }
  assert (Hm1 : colq_ok s (adv 1 m)) by (unfold colq_ok; rewrite adv_col; unfold m; lia).
  rewrite dq_text_rest. subst q.
  destruct more as [|[b1 seg1] more'] eqn:Emore.
  - cbn [rest_src flat_map app] in *.
    pose proof (seg_from_head_m F single m s n (quote_of single) rest
                  (fun a m' o => exists l' w', o = Ok (a, st_with s (quote_of single :: rest) l' m' w')) 1%nat) as SH.
    assert (HA : forall fc f acc l0 m0 w0, (1 <= fc)%nat -> (1 <= f)%nat -> colq_ok s m0 ->
              exists l' w', bind (consume_nonws str_ops fc single acc m) (after_word F single (loop F single m f) false 0 [])
                                 (st_with s (quote_of single :: rest) l0 m0 w0) = Ok (acc, st_with s (quote_of single :: rest) l' m0 w')).
    { intros fc f acc l0 m0 w0 Hfc _ _. eexists; eexists. apply (at_quote F single m s n rest Hclose); exact Hfc. }
    destruct (SH HA (proj1 (sep_head_quote single rest Hclose)) first F [] l (adv 1 m) false Hfirst) as [l' [w' E]].
    + intros E0. exfalso. rewrite adv_col in E0. lia.
    + intros _. exact (proj2 (sep_head_quote single rest Hclose)).
    + lia.
    + lia.
    + exact Hm1.
    + mstep E.
      destruct (finish_brk s F single m (rev (map item_val first) ++ []) rest l' (adv (N.of_nat (length (ssrc single first))) (adv 1 m)) w' Hws)
        as [sp [s' [Ef [Hsp Hin]]]].
      * lia.
      * exists sp, s'. split; [|split; [exact Hsp|exact Hin]]. rewrite Ef. rewrite app_nil_r, rev_involutive. cbn [qrest_text]. rewrite app_nil_r. reflexivity.
  - rewrite <- Emore in *. rewrite Eafter.
    assert (HB : forall fc f acc l0 m0 w0, (length (rest_src single more) + length more + 2 <= fc)%nat ->
              (length (rest_src single more) + length more + 2 <= f)%nat -> colq_ok s m0 ->
              Qfin single s rest more acc
                (bind (consume_nonws str_ops fc single acc m) (after_word F single (loop F single m f) false 0 [])
                      (st_with s (x' :: tail') l0 m0 w0))).
    { intros fc f acc l0 m0 w0 Hfc Hf Hm0. rewrite <- Eafter. apply Hruns; try assumption; lia. }
    destruct (seg_from_head_m F single m s n x' tail' (fun a _ o => Qfin single s rest more a o)
                (length (rest_src single more) + length more + 2)%nat HB
                Hsep' first F [] l (adv 1 m) false Hfirst) as [l' [w' [m' E]]].
    + intros E0. exfalso. rewrite adv_col in E0. lia.
    + rewrite ends_blank_last. exact Hend'.
    + lia.
    + lia.
    + exact Hm1.
    + mstep E.
      destruct (finish_brk s F single m (rev (qrest_text more) ++ rev (map item_val first) ++ []) rest l' m' w' Hws) as [sp [s' [Ef [Hsp Hin]]]].
      * lia.
      * exists sp, s'. split; [|split; [exact Hsp|exact Hin]]. rewrite Ef. rewrite app_nil_r, rev_app_distr, !rev_involutive. reflexivity.
Qed.

(* C04_quoted_full for a follower of spaces and line feeds, with the input that is left *)
Theorem scan_flow_scalar_ws :
  forall (F : nat) (single : bool) (n : nat) (first : list dq_item) (more : list (brk_layout * list dq_item))
         (rest : list N) (s : sc strin),
    (if single then sq_layout_wf n first more else dq_layout_wf n first more) = true ->
    let src := if single then sq_render first more else dq_render first more in
    si_chars (sc_in s) = quote_of single :: src ++ quote_of single :: rest ->
    ws_only rest = true ->
    (sc_indent s < Z.of_nat n)%Z ->
    (sc_indent s <= Z.of_N (m_col (sc_mark s)) + 1)%Z ->
    (2 * length (si_chars (sc_in s)) + 10 <= F)%nat ->
    exists sp s',
      scan_flow_scalar str_ops F single s = Ok ((sp, TScalar (style_of single) (dq_text first more)), s')
      /\ sp_start sp = sc_mark s /\ si_chars (sc_in s') = drop_leading rest.
Proof.
  intros F single n first more rest s Hwf src Hsrc Hws.
  exact (scan_flow_scalar_brk F single n first more rest s Hwf Hsrc (ws_only_drop_head rest Hws) (fun _ => ws_only_close rest Hws)).
Qed.
