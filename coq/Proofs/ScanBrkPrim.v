(* C14 (see ScanBrk.v): the contracts of the PRIMITIVES family under the state relation [BR md], which are those of
   ScanLockPrim.v at the lock [brk_lock md]. *)
From Coq Require Import List NArith ZArith Bool Arith Lia.
Import ListNotations.
Require Import Parser SBase SPrim SDir SScalar SFetch ScanLock ScanLockPrim ScanBrk.
Local Open Scope nat_scope.

Lemma skipn_tl {A} j (l : list A) : skipn j (tl l) = skipn (S j) l.
Proof. destruct l; [destruct j; reflexivity|reflexivity]. Qed.

Section Generic.
Variable md : mode.
Local Notation L := (brk_lock md).

Lemma bwp_bpost_al_weaken {A1 A2} (VR : A1 -> A2 -> Prop) (m1 : BM A1) (m2 : BM A2) s1 s2 :
  bwp m1 m2 (bpost_al md VR) s1 s2 -> bwp m1 m2 (bpost md VR) s1 s2.
Proof. exact (lwp_bpost_al_weaken (M:=MR) (R:=BR md) VR m1 m2 s1 s2). Qed.
Lemma bwp_in_flow (Q : bool -> bst -> bool -> bst -> Prop) s1 s2 :
  BR md s1 s2 -> Q (0 <? sc_flow_level s1)%N s1 (0 <? sc_flow_level s1)%N s2 -> bwp in_flow in_flow Q s1 s2.
Proof. exact (lwp_in_flow L Q s1 s2). Qed.

(* stale_simple_keys.  The index distance is looked at only for a possible key on the current line, where the
   two sides have the same index shift. *)
Definition stale_of (s : bst) (k : simple_key) : bool :=
  sk_possible k && (sc_flow_level s =? 0)%N
  && ((m_line (sk_mark k) <? m_line (sc_mark s))%N || (m_index (sk_mark k) + SIMPLE_KEY_MAX <? m_index (sc_mark s))%N).
Lemma stale_brk s1 s2 k1 k2 : BR md s1 s2 -> KR (sc_mark s1) (sc_mark s2) k1 k2 -> stale_of s2 k2 = stale_of s1 k1.
Proof.
  intros H [P R N' [ML MC] L S]. unfold stale_of. rewrite <- P, <- (BR_flow_level H), <- ML, <- (BR_line H).
  destruct (sk_possible k1) eqn:EP; [|reflexivity]. cbn [andb]. f_equal.
  specialize (L eq_refl). specialize (S eq_refl).
  destruct (N.ltb_spec (m_line (sk_mark k1)) (m_line (sc_mark s1))) as [Hlt|Hge]; [reflexivity|]. cbn [orb].
  assert (EL : m_line (sk_mark k1) = m_line (sc_mark s1)) by lia. specialize (S EL).
  destruct (N.ltb_spec (m_index (sk_mark k2) + SIMPLE_KEY_MAX) (m_index (sc_mark s2)));
    destruct (N.ltb_spec (m_index (sk_mark k1) + SIMPLE_KEY_MAX) (m_index (sc_mark s1))); try reflexivity; lia.
Qed.

(* the contracts *)
Theorem skip_ws_to_eol_ok : brk_skip_ws_to_eol md.
Proof. exact (ScanLockPrim.skip_ws_to_eol_ok L). Qed.
Theorem skip_to_next_token_ok : brk_skip_to_next_token md.
Proof. exact (ScanLockPrim.skip_to_next_token_ok L). Qed.
Theorem skip_yaml_whitespace_ok : brk_skip_yaml_whitespace md.
Proof. exact (ScanLockPrim.skip_yaml_whitespace_ok L). Qed.
Theorem scan_anchor_ok : brk_scan_anchor md.
Proof. exact (ScanLockPrim.scan_anchor_ok L). Qed.

End Generic.

Print Assumptions skip_ws_to_eol_ok.
Print Assumptions skip_to_next_token_ok.
Print Assumptions skip_yaml_whitespace_ok.
Print Assumptions scan_anchor_ok.
