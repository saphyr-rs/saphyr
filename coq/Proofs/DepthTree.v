(* C11 — the depth of the LOADED tree (what the destructor, clone, eq, hash and the emitter recurse over) in terms of the
   nesting depth of the events, for alias-free event sentences: an alias copies the completed anchored node into the
   tree, so with aliases the tree may be deeper than the events nest (example at the end). *)
From Coq Require Import List NArith ZArith Bool Lia PeanoNat.
Import ListNotations.
Require Import Parser Resolver Loader Grammar BuildDocs LoaderProofs Depth DepthProofs.
Local Open Scope nat_scope.

Fixpoint alias_free (t : etree) : bool :=
  match t with
  | TScalar _ _ _ _ => true
  | TAlias _ => false
  | TSeq _ _ l => forallb alias_free l
  | TMap _ _ l => forallb (fun kv => alias_free (fst kv) && alias_free (snd kv)) l
  end.
Definition is_alias_ev (e : event) : bool := match e with EAlias _ => true | _ => false end.
Definition alias_free_events (evs : list event) : bool := forallb (fun e => negb (is_alias_ev e)) evs.

Definition pdepth (kv : yaml * yaml) : nat := Nat.max (S (ydepth (fst kv))) (S (ydepth (snd kv))).

Lemma list_max_app l1 l2 : list_max (l1 ++ l2) = Nat.max (list_max l1) (list_max l2).
Proof. exact (List.list_max_app l1 l2). Qed.

(* LinkedHashMap::insert never deepens the map beyond the old entries and the new pair *)
Lemma remove_key_depth k l : forall o r, remove_key k l = (o, r) ->
  list_max (map pdepth r) <= list_max (map pdepth l)
  /\ match o with Some k0 => S (ydepth k0) <= list_max (map pdepth l) | None => True end.
Proof.
  induction l as [|[k' v'] l IH]; intros o r H; cbn [remove_key] in H.
  - inversion H; subst. cbn. auto.
  - destruct (yaml_eqb k k').
    + inversion H; subst. cbn [map]. rewrite !list_max_cons.
      change (pdepth (k', v')) with (Nat.max (S (ydepth k')) (S (ydepth v'))). split; lia.
    + destruct (remove_key k l) as [o' r'] eqn:E. inversion H; subst. destruct (IH _ _ eq_refl) as [A B].
      cbn [map]. rewrite !list_max_cons. split; [lia|]. destruct o; [lia|exact I].
Qed.

Lemma map_insert_depth k v l :
  list_max (map pdepth (map_insert k v l)) <= Nat.max (list_max (map pdepth l)) (Nat.max (S (ydepth k)) (S (ydepth v))).
Proof.
  unfold map_insert. destruct (remove_key k l) as [o r] eqn:E. destruct (remove_key_depth _ _ _ _ E) as [A B].
  destruct o as [k0|]; rewrite map_app, list_max_app; cbn [map]; rewrite list_max_cons;
    [change (pdepth (k0, v)) with (Nat.max (S (ydepth k0)) (S (ydepth v)))|change (pdepth (k, v)) with (Nat.max (S (ydepth k)) (S (ydepth v)))];
    cbn [list_max fold_right]; lia.
Qed.

(* the value of an alias-free tree is no deeper than the tree *)
Lemma build_depth : forall t m, alias_free t = true -> ydepth (fst (build m t)) <= tdepth t.
Proof.
  induction t as [v st a tg|i|a tg l IH|a tg l IH] using etree_ind2; intros m HA.
  - cbn [build fst tdepth]. unfold value_of. destruct (parse_from_cow_and_metadata _ _ _); cbn; lia.
  - discriminate.
  - cbn [build tdepth]. destruct (build_items build m l) as [ys m'] eqn:E. cbn [fst ydepth].
    cbn [alias_free] in HA. revert m ys m' E HA.
    induction IH as [|x r Hx _ IHr]; intros m ys m' E HA; cbn [build_items] in E.
    + inversion E; subst. cbn. lia.
    + destruct (build m x) as [y m1] eqn:E1. destruct (build_items build m1 r) as [ys2 m2] eqn:E2.
      inversion E; subst. cbn [forallb] in HA. apply andb_prop in HA as [HA1 HA2].
      cbn [map]. rewrite !list_max_cons. specialize (Hx m HA1). rewrite E1 in Hx. cbn [fst] in Hx.
      specialize (IHr m1 ys2 m' E2 HA2). lia.
  - cbn [build tdepth]. destruct (build_pairs build m l []) as [ps m'] eqn:E. cbn [fst ydepth].
    cbn [alias_free] in HA.
    change (list_max (map (fun kv : yaml * yaml => Nat.max (S (ydepth (fst kv))) (S (ydepth (snd kv)))) ps))
      with (list_max (map pdepth ps)).
    assert (G : forall acc m ps m', build_pairs build m l acc = (ps, m') ->
                forallb (fun kv => alias_free (fst kv) && alias_free (snd kv)) l = true ->
                list_max (map pdepth ps)
                <= Nat.max (list_max (map pdepth acc))
                           (list_max (map (fun kv => Nat.max (S (tdepth (fst kv))) (S (tdepth (snd kv)))) l))).
    { clear E HA m ps m'. induction IH as [|[kt vt] r [Hk Hv] _ IHr]; intros acc m ps m' E HA; cbn [build_pairs] in E.
      - inversion E; subst. cbn [map list_max fold_right]. lia.
      - cbn [fst snd] in Hk, Hv. destruct (build m kt) as [ky m1] eqn:E1. destruct (build m1 vt) as [vy m2] eqn:E2.
        cbn [forallb fst snd] in HA. apply andb_prop in HA as [HA1 HA2]. apply andb_prop in HA1 as [HAk HAv].
        specialize (Hk m HAk). rewrite E1 in Hk. specialize (Hv m1 HAv). rewrite E2 in Hv. cbn [fst] in Hk, Hv.
        specialize (IHr _ _ _ _ E HA2). pose proof (map_insert_depth ky vy acc).
        cbn [map fst snd]. rewrite list_max_cons. lia. }
    specialize (G [] m ps m' E HA). cbn [map list_max fold_right] in G. lia.
Qed.

Lemma alias_free_events_app a b : alias_free_events (a ++ b) = alias_free_events a && alias_free_events b.
Proof. unfold alias_free_events. apply forallb_app. Qed.

Lemma alias_free_of_events : forall t, alias_free_events (events_of t) = true -> alias_free t = true.
Proof.
  induction t as [v st a tg|i|a tg l IH|a tg l IH] using etree_ind2; intros H.
  - reflexivity.
  - discriminate.
  - cbn [events_of] in H. change (ESequenceStart a tg :: events_items events_of l ++ [ESequenceEnd])
      with ([ESequenceStart a tg] ++ events_items events_of l ++ [ESequenceEnd]) in H.
    rewrite !alias_free_events_app in H. apply andb_prop in H as [_ H]. apply andb_prop in H as [H _].
    cbn [alias_free]. induction IH as [|x r Hx _ IHr]; [reflexivity|].
    cbn [events_items] in H. rewrite alias_free_events_app in H. apply andb_prop in H as [H1 H2].
    cbn [forallb]. rewrite (Hx H1), (IHr H2). reflexivity.
  - cbn [events_of] in H. change (EMappingStart a tg :: events_pairs events_of l ++ [EMappingEnd])
      with ([EMappingStart a tg] ++ events_pairs events_of l ++ [EMappingEnd]) in H.
    rewrite !alias_free_events_app in H. apply andb_prop in H as [_ H]. apply andb_prop in H as [H _].
    cbn [alias_free]. induction IH as [|[kx vx] r [Hk Hv] _ IHr]; [reflexivity|].
    cbn [fst snd] in Hk, Hv. cbn [events_pairs] in H. rewrite !alias_free_events_app in H.
    apply andb_prop in H as [H1 H2]. apply andb_prop in H2 as [H2 H3].
    cbn [forallb fst snd]. rewrite (Hk H1), (Hv H2), (IHr H3). reflexivity.
Qed.

(* documents *)
Lemma docs_depth ds : forall m,
  alias_free_events (events_docs ds) = true ->
  Forall (fun y => ydepth y <= list_max (map (fun d => tdepth (snd d)) ds)) (fst (build_docs m ds)).
Proof.
  induction ds as [|[e t] r IH]; intros m HA; [constructor|].
  cbn [events_docs] in HA. unfold events_doc in HA. cbn [fst snd] in HA.
  change (EDocumentStart e :: events_of t ++ [EDocumentEnd]) with ([EDocumentStart e] ++ events_of t ++ [EDocumentEnd]) in HA.
  rewrite !alias_free_events_app in HA. apply andb_prop in HA as [HA0 HA].
  apply andb_prop in HA0 as [_ HA0]. apply andb_prop in HA0 as [HAt _].
  cbn [build_docs map snd]. rewrite list_max_cons.
  destruct (build m t) as [y m1] eqn:E1. destruct (build_docs m1 r) as [ys m2] eqn:E2. cbn [fst].
  constructor.
  - pose proof (build_depth t m (alias_free_of_events t HAt)) as B. rewrite E1 in B. cbn [fst] in B. lia.
  - specialize (IH m1 HA). rewrite E2 in IH. eapply Forall_impl; [|exact IH]. cbn beta. intros y' Hy. lia.
Qed.

(* Every event sentence the grammar accepts and that holds no alias: the loader model builds its documents (no panic)
   and none of them is deeper than the events nest — so every recursive traversal of a loaded document (drop, clone, eq,
   hash, emit: [ywalk]) entered at depth d reaches at most d + the nesting depth of the events. *)
Theorem loaded_tree_depth_bounded evs :
  grun GInit evs = Some GEnd -> alias_free_events evs = true ->
  exists ld, load_events evs l0 = LOk ld
             /\ Forall (fun y => ydepth y <= max_nesting evs /\ forall d, ywalk d y <= d + max_nesting evs) (l_docs ld).
Proof.
  intros HG HA. destruct (accepted_loads_spec evs HG) as (ds & ld & _ & E & HL & HD & _ & _).
  exists ld. split; [exact HL|].
  assert (HF : Forall (fun y => ydepth y <= max_nesting evs) (spec_load ds)).
  { subst evs. rewrite stream_of_nesting.
    unfold stream_of in HA. change (EStreamStart :: events_docs ds ++ [EStreamEnd]) with ([EStreamStart] ++ events_docs ds ++ [EStreamEnd]) in HA.
    rewrite !alias_free_events_app in HA. apply andb_prop in HA as [_ HA]. apply andb_prop in HA as [HA _].
    apply (docs_depth ds [] HA). }
  rewrite <- HD in HF. apply Forall_rev in HF. rewrite rev_involutive in HF.
  eapply Forall_impl; [|exact HF]. cbn beta. intros y Hy. split; [exact Hy|].
  intros d. rewrite walk_depth_is_tree_depth. lia.
Qed.

(* with aliases the tree can be deeper than the events nest: "- &a [x]", "- &b [*a]", "- &c [*b]" nests 2 deep and
   loads to a tree of depth 4 (each alias copies the completed anchored node) *)
Example alias_deepens_the_tree :
  let evs := [EStreamStart; EDocumentStart false; ESequenceStart 0%N None;
              ESequenceStart 1%N None; EScalar [120%N] Plain 0%N None; ESequenceEnd;
              ESequenceStart 2%N None; EAlias 1%N; ESequenceEnd;
              ESequenceStart 3%N None; EAlias 2%N; ESequenceEnd;
              ESequenceEnd; EDocumentEnd; EStreamEnd] in
  max_nesting evs = 2
  /\ match load_events evs l0 with LOk ld => map ydepth (l_docs ld) = [4] | LPanic _ => False end.
Proof. vm_compute. split; reflexivity. Qed.
