(* C20 — proofs about Model/Hashing.v *)
From Coq Require Import List NArith ZArith Bool Lia.
Import ListNotations.
Require Import Resolver Loader Hashing ListKit StrEqb YamlInd.
Open Scope N_scope.

Arguments N.eqb : simpl never.
Arguments N.ltb : simpl never.
Arguments N.sub : simpl never.

(* tags *)
Lemma tag_eqb_eq a b : tag_eqb a b = true -> a = b.
Proof.
  destruct a as [[h s]|], b as [[h' s']|]; cbn [tag_eqb]; try discriminate; [|reflexivity].
  intros H. apply andb_prop in H. destruct H as [H1 H2]. apply str_eqb_eq in H1, H2. congruence.
Qed.
Lemma tag_eqb_refl a : tag_eqb a a = true.
Proof. destruct a as [[h s]|]; cbn [tag_eqb]; [rewrite !str_eqb_refl|]; reflexivity. Qed.

(* OrderedFloat: Eq implies equal hash bits *)
Lemma ofloat_eq_hash a b : ofloat_eqb a b = true -> ofloat_hash_bits a = ofloat_hash_bits b.
Proof.
  unfold ofloat_eqb, ofloat_hash_bits, f64_ieee_eqb.
  destruct (f64_is_nan a) eqn:Na.
  - intros ->. reflexivity.
  - destruct (f64_is_nan b) eqn:Nb; cbn [negb andb]; [discriminate|].
    destruct (f64_is_zero a) eqn:Za, (f64_is_zero b) eqn:Zb; cbn [andb orb]; intros H; try reflexivity;
      apply N.eqb_eq in H; subst; congruence.
Qed.
Lemma ofloat_eqb_refl a : ofloat_eqb a a = true.
Proof.
  unfold ofloat_eqb, f64_ieee_eqb. destruct (f64_is_nan a); [reflexivity|].
  cbn [negb andb]. rewrite N.eqb_refl. apply orb_true_r.
Qed.
Lemma ofloat_eqb_sym a b : ofloat_eqb a b = ofloat_eqb b a.
Proof.
  unfold ofloat_eqb, f64_ieee_eqb. rewrite (N.eqb_sym a b).
  destruct (f64_is_nan a), (f64_is_nan b), (f64_is_zero a), (f64_is_zero b); reflexivity.
Qed.
(* the hash bits identify the Eq class: the converse also holds, so OrderedFloat's hash is as fine as its Eq *)
Lemma ofloat_hash_canonical a : ofloat_hash_bits (ofloat_hash_bits a) = ofloat_hash_bits a.
Proof.
  unfold ofloat_hash_bits. destruct (f64_is_nan a) eqn:Na; [reflexivity|].
  destruct (f64_is_zero a) eqn:Za; [reflexivity|]. rewrite Na, Za. reflexivity.
Qed.

(* induction principles for the nested types *)
Section HInd.
  Variable P : hyaml -> Prop.
  Hypothesis Hrep : forall s st tg, P (HRep s st tg).
  Hypothesis Hval : forall v, P (HVal v).
  Hypothesis Hseq : forall l, Forall P l -> P (HSeq l).
  Hypothesis Hmap : forall l, Forall (fun kv => P (fst kv) /\ P (snd kv)) l -> P (HMap l).
  Hypothesis Halias : forall n, P (HAlias n).
  Hypothesis Hbad : P HBad.
  Fixpoint hyaml_ind' (y : hyaml) : P y :=
    match y with
    | HRep s st tg => Hrep s st tg
    | HVal v => Hval v
    | HSeq l => Hseq l (Forall_all P hyaml_ind' l)
    | HMap l => Hmap l (Forall_all _ (fun kv => conj (hyaml_ind' (fst kv)) (hyaml_ind' (snd kv))) l)
    | HAlias n => Halias n
    | HBad => Hbad
    end.
End HInd.

Section CInd.
  Variable P : cnode -> Prop.
  Hypothesis Hrep : forall sp o s st tg, P (CRep sp o s st tg).
  Hypothesis Hval : forall sp v, P (CVal sp v).
  Hypothesis Hseq : forall sp l, Forall P l -> P (CSeq sp l).
  Hypothesis Hmap : forall sp l, Forall (fun kv => P (fst kv) /\ P (snd kv)) l -> P (CMap sp l).
  Hypothesis Halias : forall sp n, P (CAlias sp n).
  Hypothesis Hbad : forall sp, P (CBad sp).
  Fixpoint cnode_ind' (y : cnode) : P y :=
    match y with
    | CRep sp o s st tg => Hrep sp o s st tg
    | CVal sp v => Hval sp v
    | CSeq sp l => Hseq sp l (Forall_all P cnode_ind' l)
    | CMap sp l => Hmap sp l (Forall_all _ (fun kv => conj (cnode_ind' (fst kv)) (cnode_ind' (snd kv))) l)
    | CAlias sp n => Halias sp n
    | CBad sp => Hbad sp
    end.
End CInd.

(* the recursions hidden in the nested fixpoints are those of ListKit *)
Lemma hash_seq l : hash_stream (HSeq l) = OIsize 2 :: OUsize (N.of_nat (length l)) :: flat_map hash_stream l.
Proof. reflexivity. Qed.
Lemma hash_map l : hash_stream (HMap l) = OIsize 3 :: pflat hash_stream l.
Proof. reflexivity. Qed.
Lemma eqb_seq l l' : hyaml_eqb (HSeq l) (HSeq l') = list_eqb hyaml_eqb l l'.
Proof. reflexivity. Qed.
Lemma eqb_map l l' : hyaml_eqb (HMap l) (HMap l') = pairs_eqb hyaml_eqb l l'.
Proof. reflexivity. Qed.

(* k1 == k2  ->  hash(k1) == hash(k2) *)
Lemma hscalar_eq_hash x y : hscalar_eqb x y = true -> hash_scalar x = hash_scalar y.
Proof.
  destruct x, y; cbn [hscalar_eqb hash_scalar]; try discriminate; intros H.
  - reflexivity.
  - apply Bool.eqb_prop in H. subst. reflexivity.
  - apply Z.eqb_eq in H. subst. reflexivity.
  - apply ofloat_eq_hash in H. rewrite H. reflexivity.
  - apply str_eqb_eq in H. subst. reflexivity.
Qed.

Lemma eq_implies_hash : forall a b, hyaml_eqb a b = true -> hash_stream a = hash_stream b.
Proof.
  induction a as [s st tg|v|l IH|l IH|n|] using hyaml_ind'; intros b H; destruct b; try discriminate H.
  - cbn [hyaml_eqb] in H. apply andb_prop in H. destruct H as [H12 H3]. apply andb_prop in H12. destruct H12 as [H1 H2].
    apply str_eqb_eq in H1. apply N.eqb_eq in H2. apply tag_eqb_eq in H3. subst. reflexivity.
  - cbn [hyaml_eqb] in H. cbn [hash_stream]. rewrite (hscalar_eq_hash _ _ H). reflexivity.
  - rewrite eqb_seq in H. rewrite !hash_seq. destruct (list_eqb_flat_map hyaml_eqb hash_stream l IH _ H) as [L E].
    rewrite L, E. reflexivity.
  - rewrite eqb_map in H. rewrite !hash_map, (pairs_eqb_pflat hyaml_eqb hash_stream l IH _ H). reflexivity.
  - cbn [hyaml_eqb] in H. apply N.eqb_eq in H. subst. reflexivity.
  - reflexivity.
Qed.

(* Eq is reflexive and symmetric (it is an equivalence; needed to read `q == c` and `c == q` alike) *)
Lemma hscalar_eqb_refl x : hscalar_eqb x x = true.
Proof.
  destruct x; cbn [hscalar_eqb]; [reflexivity|apply Bool.eqb_reflx|apply Z.eqb_refl|apply ofloat_eqb_refl|apply str_eqb_refl].
Qed.
Lemma hscalar_eqb_sym x y : hscalar_eqb x y = hscalar_eqb y x.
Proof.
  destruct x, y; cbn [hscalar_eqb]; try reflexivity.
  - destruct b, b0; reflexivity.
  - apply Z.eqb_sym.
  - apply ofloat_eqb_sym.
  - apply str_eqb_sym.
Qed.
Lemma hyaml_eqb_refl : forall a, hyaml_eqb a a = true.
Proof.
  induction a as [s st tg|v|l IH|l IH|n|] using hyaml_ind'.
  - cbn [hyaml_eqb]. rewrite str_eqb_refl, N.eqb_refl, tag_eqb_refl. reflexivity.
  - apply hscalar_eqb_refl.
  - rewrite eqb_seq. apply list_eqb_refl. exact IH.
  - rewrite eqb_map. apply pairs_eqb_refl. exact IH.
  - cbn [hyaml_eqb]. apply N.eqb_refl.
  - reflexivity.
Qed.
Lemma tag_eqb_sym a b : tag_eqb a b = tag_eqb b a.
Proof. destruct a as [[h s]|], b as [[h' s']|]; cbn [tag_eqb]; try reflexivity. rewrite (str_eqb_sym h), (str_eqb_sym s). reflexivity. Qed.
Lemma hyaml_eqb_sym : forall a b, hyaml_eqb a b = hyaml_eqb b a.
Proof.
  induction a as [s st tg|v|l IH|l IH|n|] using hyaml_ind'; intros b; destruct b; try reflexivity.
  - cbn [hyaml_eqb]. rewrite (str_eqb_sym s), (N.eqb_sym st), (tag_eqb_sym tg). reflexivity.
  - cbn [hyaml_eqb]. apply hscalar_eqb_sym.
  - rewrite !eqb_seq. apply list_eqb_sym. exact IH.
  - rewrite !eqb_map. apply pairs_eqb_sym. exact IH.
  - cbn [hyaml_eqb]. apply N.eqb_sym.
Qed.

(* comparing with a string / integer node *)
Lemma is_str_key_iff k c : is_str_key k c = true <-> c = str_node k.
Proof.
  unfold is_str_key, str_node. destruct c as [| [| | | |s] | | | |]; try (split; [discriminate|intros H; discriminate H]).
  rewrite str_eqb_iff. split; [intros ->; reflexivity|intros H; injection H; auto].
Qed.
Lemma eqb_str_node_l k c : hyaml_eqb c (str_node k) = is_str_key k c.
Proof. destruct c as [| [| | | |s] | | | |]; reflexivity. Qed.
Lemma eqb_str_node_r k c : hyaml_eqb (str_node k) c = is_str_key k c.
Proof. rewrite hyaml_eqb_sym. apply eqb_str_node_l. Qed.
Lemma as_str_pred k c : (match as_str c with Some s => str_eqb s k | None => false end) = is_str_key k c.
Proof. destruct c as [| [| | | |s] | | | |]; reflexivity. Qed.
Lemma is_int_key_iff i c : is_int_key i c = true <-> c = int_node i.
Proof.
  unfold is_int_key, int_node. destruct c as [| [| |z| |] | | | |]; try (split; [discriminate|intros H; discriminate H]).
  rewrite Z.eqb_eq. split; [intros ->; reflexivity|intros H; injection H; auto].
Qed.
Lemma eqb_int_node_r i c : hyaml_eqb (int_node i) c = is_int_key i c.
Proof. destruct c as [| [| |z| |] | | | |]; try reflexivity. cbn. apply Z.eqb_sym. Qed.
(* a key that is not a string node is never accepted, whatever its text *)
Lemma non_string_rejected k c : as_str c = None -> is_str_key k c = false.
Proof. destruct c as [| [| | | |s] | | | |]; try reflexivity. discriminate. Qed.

(* find_key *)
Lemma find_key_ext p p' m : (forall c, p c = p' c) -> find_key p m = find_key p' m.
Proof. intros E. induction m as [|[k v] r IH]; cbn [find_key]; [reflexivity|]. rewrite E, IH. reflexivity. Qed.
Lemma find_key_some p m v :
  find_key p m = Some v <->
  exists m1 k m2, m = m1 ++ (k, v) :: m2 /\ p k = true /\ (forall k' v', In (k', v') m1 -> p k' = false).
Proof.
  split.
  - induction m as [|[k0 v0] r IH]; cbn [find_key]; [discriminate|].
    destruct (p k0) eqn:E.
    + intros H. injection H as ->. exists [], k0, r. split; [reflexivity|]. split; [exact E|]. intros ? ? [].
    + intros H. destruct (IH H) as (m1 & k & m2 & -> & Hk & Hm). exists ((k0, v0) :: m1), k, m2.
      split; [reflexivity|]. split; [exact Hk|]. intros k' v' [Hin|Hin]; [injection Hin as <- <-; exact E|eauto].
  - intros (m1 & k & m2 & -> & Hk & Hm). induction m1 as [|[k0 v0] r IH]; cbn [find_key app].
    + rewrite Hk. reflexivity.
    + rewrite (Hm k0 v0 (or_introl eq_refl)). apply IH. intros k' v' Hin. apply (Hm k' v'). right. exact Hin.
Qed.
Lemma find_key_none p m : find_key p m = None <-> (forall k v, In (k, v) m -> p k = false).
Proof.
  induction m as [|[k0 v0] r IH]; cbn [find_key].
  - split; [intros _ ? ? []|reflexivity].
  - destruct (p k0) eqn:E.
    + split; [discriminate|]. intros H. rewrite (H k0 v0 (or_introl eq_refl)) in E. discriminate.
    + rewrite IH. split.
      * intros H k v [Hin|Hin]; [injection Hin as <- <-; exact E|eauto].
      * intros H k v Hin. apply (H k v). right. exact Hin.
Qed.

(* a search for the keys that are the node q itself *)
Section FindNode.
  Variables (p : hyaml -> bool) (q : hyaml).
  Hypothesis p_iff : forall c, p c = true <-> c = q.

  Lemma find_node_some m v :
    find_key p m = Some v <-> exists m1 m2, m = m1 ++ (q, v) :: m2 /\ (forall k' v', In (k', v') m1 -> k' <> q).
  Proof.
    rewrite find_key_some. split.
    - intros (m1 & c & m2 & -> & Hc & Hm). apply p_iff in Hc. subst c. exists m1, m2. split; [reflexivity|].
      intros k' v' Hin E. apply Hm in Hin. apply p_iff in E. congruence.
    - intros (m1 & m2 & -> & Hm). exists m1, q, m2. split; [reflexivity|].
      split; [apply p_iff; reflexivity|]. intros k' v' Hin. destruct (p k') eqn:E; [|reflexivity].
      apply p_iff in E. exfalso. eapply Hm; eauto.
  Qed.
  Lemma find_node_none m : find_key p m = None <-> (forall v, ~ In (q, v) m).
  Proof.
    rewrite find_key_none. split.
    - intros H v Hin. apply H in Hin. assert (T : p q = true) by (apply p_iff; reflexivity). congruence.
    - intros H c v Hin. destruct (p c) eqn:E; [|reflexivity]. apply p_iff in E. subst. exfalso. eapply H; eauto.
  Qed.
End FindNode.

(* the lookups *)
Section LookupProofs.
  Variable fin : list hash_op -> N.

  (* a hashed search whose predicate only accepts keys that hash like the needle is a plain search *)
  Lemma from_hash_find q p m :
    (forall c, p c = true -> hash_stream c = hash_stream q) ->
    option_map snd (from_hash fin (hash_of fin q) p m) = find_key p m.
  Proof.
    intros Hp. induction m as [|[k v] r IH]; cbn [from_hash find_key]; [reflexivity|].
    destruct (p k) eqn:E.
    - unfold hash_of at 1. rewrite (Hp _ E). fold (hash_of fin q). rewrite N.eqb_refl. reflexivity.
    - rewrite andb_false_r. exact IH.
  Qed.

  (* LinkedHashMap::get(&q) finds the first key equal to q, for every node q *)
  Lemma map_get_find q m : map_get fin q m = find_key (hyaml_eqb q) m.
  Proof.
    unfold map_get. apply from_hash_find. intros c H. symmetry. apply eq_implies_hash. exact H.
  Qed.

  Lemma get_impl_str_spec k m : get_impl_str fin k (HMap m) = spec_get k m.
  Proof.
    unfold get_impl_str, spec_get. rewrite from_hash_find.
    - apply find_key_ext. intros c. apply as_str_pred.
    - intros c H. rewrite as_str_pred in H. apply is_str_key_iff in H. subst. reflexivity.
  Qed.
  Lemma get_impl_node_spec k m : get_impl_node fin k (HMap m) = spec_get k m.
  Proof.
    unfold get_impl_node, spec_get. rewrite from_hash_find.
    - apply find_key_ext. intros c. apply eqb_str_node_l.
    - intros c H. apply eq_implies_hash. exact H.
  Qed.
  Lemma get_explicit_spec k m : get_explicit fin k (HMap m) = spec_get k m.
  Proof.
    unfold get_explicit, spec_get. rewrite map_get_find. apply find_key_ext. intros c. apply eqb_str_node_r.
  Qed.
  Lemma as_mapping_get_spec marked k m : as_mapping_get fin marked k (HMap m) = spec_get k m.
  Proof. unfold as_mapping_get. destruct marked; [apply get_impl_node_spec|apply get_impl_str_spec]. Qed.

  Definition idx_of (o : option hyaml) (why : N) : idx_res := match o with Some v => IOk v | None => IPanic why end.

  Lemma string_lookups_agree marked k m :
    as_mapping_get fin marked k (HMap m) = spec_get k m /\
    contains_mapping_key fin marked k (HMap m) = is_some (spec_get k m) /\
    index_str fin marked k (HMap m) = idx_of (spec_get k m) p_key_not_found /\
    index_mut_str fin marked k (HMap m) = idx_of (spec_get k m) p_key_not_found /\
    get_explicit fin k (HMap m) = spec_get k m.
  Proof.
    unfold contains_mapping_key, index_str, index_mut_str. rewrite as_mapping_get_spec, get_explicit_spec.
    cbn [is_map]. destruct (spec_get k m); cbn [idx_of]; repeat split; reflexivity.
  Qed.

  Lemma string_lookups_non_mapping marked k y :
    is_map y = false ->
    as_mapping_get fin marked k y = None /\
    contains_mapping_key fin marked k y = false /\
    index_str fin marked k y = IPanic p_not_a_mapping /\
    index_mut_str fin marked k y = IPanic p_not_a_mapping /\
    get_explicit fin k y = None.
  Proof.
    intros H. unfold contains_mapping_key, index_str, index_mut_str, as_mapping_get. rewrite H.
    destruct y; try discriminate H; destruct marked; repeat split; reflexivity.
  Qed.

  Lemma nth_N_nth_error {A} (l : list A) : forall i, nth_N l i = nth_error l (N.to_nat i).
  Proof.
    induction l as [|x r IH]; intros i; cbn [nth_N].
    - destruct (N.to_nat i); reflexivity.
    - destruct (N.eqb_spec i 0) as [->|Hne]; [reflexivity|].
      replace (N.to_nat i) with (S (N.to_nat (i - 1))) by lia. cbn [nth_error]. apply IH.
  Qed.

  Lemma integer_lookups_sequence i l :
    as_sequence_get i (HSeq l) = nth_error l (N.to_nat i) /\
    index_usize fin i (HSeq l) = idx_of (nth_error l (N.to_nat i)) p_out_of_bounds.
  Proof.
    unfold as_sequence_get, index_usize. rewrite nth_N_nth_error. destruct (nth_error l (N.to_nat i)); split; reflexivity.
  Qed.
  Lemma integer_lookups_mapping i m :
    map_get fin (int_node (Z.of_N i)) m = spec_get_int (Z.of_N i) m /\
    index_usize fin i (HMap m) =
      (if i <? 9223372036854775808 then idx_of (spec_get_int (Z.of_N i) m) p_key_not_found else IPanic p_overflowing) /\
    as_sequence_get i (HMap m) = None.
  Proof.
    assert (E : map_get fin (int_node (Z.of_N i)) m = spec_get_int (Z.of_N i) m).
    { rewrite map_get_find. apply find_key_ext. intros c. apply eqb_int_node_r. }
    unfold index_usize. rewrite E. destruct (i <? 9223372036854775808); [destruct (spec_get_int (Z.of_N i) m)|];
      repeat split; reflexivity.
  Qed.
  Lemma integer_lookups_other i y :
    match y with HSeq _ | HMap _ => False | _ => True end ->
    index_usize fin i y = IPanic p_not_map_nor_seq /\ as_sequence_get i y = None.
  Proof. destruct y; intros H; try contradiction; split; reflexivity. Qed.
End LookupProofs.

(* found exactly when some key is the string node; the value of the first such entry is returned *)
Lemma spec_get_some k m v :
  spec_get k m = Some v <->
  exists m1 m2, m = m1 ++ (str_node k, v) :: m2 /\ (forall k' v', In (k', v') m1 -> k' <> str_node k).
Proof. exact (find_node_some _ _ (is_str_key_iff k) m v). Qed.
Lemma spec_get_none k m : spec_get k m = None <-> (forall v, ~ In (str_node k, v) m).
Proof. exact (find_node_none _ _ (is_str_key_iff k) m). Qed.
Lemma spec_get_found_iff k m : is_some (spec_get k m) = true <-> exists v, In (str_node k, v) m.
Proof.
  destruct (spec_get k m) eqn:E; cbn [is_some].
  - split; [intros _|reflexivity]. apply spec_get_some in E. destruct E as (m1 & m2 & -> & _). exists h.
    apply in_or_app. right. left. reflexivity.
  - split; [discriminate|]. intros [v Hin]. exfalso. exact (proj1 (spec_get_none k m) E v Hin).
Qed.
Lemma spec_get_nonstring k m : (forall c v, In (c, v) m -> as_str c <> Some k) -> spec_get k m = None.
Proof. intros H. apply spec_get_none. intros v Hin. apply H in Hin. apply Hin. reflexivity. Qed.
Lemma spec_get_int_some i m v :
  spec_get_int i m = Some v <->
  exists m1 m2, m = m1 ++ (int_node i, v) :: m2 /\ (forall k' v', In (k', v') m1 -> k' <> int_node i).
Proof. exact (find_node_some _ _ (is_int_key_iff i) m v). Qed.
Lemma spec_get_int_none i m : spec_get_int i m = None <-> (forall v, ~ In (int_node i, v) m).
Proof. exact (find_node_none _ _ (is_int_key_iff i) m). Qed.

(* concrete Rust values: Eq and Hash ignore spans and the borrowed/owned distinction *)
Lemma erase_seq sp l : erase (CSeq sp l) = HSeq (map erase l). Proof. reflexivity. Qed.
Lemma erase_map sp l : erase (CMap sp l) = HMap (pmap erase l). Proof. reflexivity. Qed.
Lemma chash_seq sp l : chash (CSeq sp l) = OIsize 2 :: OUsize (N.of_nat (length l)) :: flat_map chash l.
Proof. reflexivity. Qed.
Lemma chash_map sp l : chash (CMap sp l) = OIsize 3 :: pflat chash l. Proof. reflexivity. Qed.
Lemma ceqb_seq sp sp' l l' : cnode_eqb (CSeq sp l) (CSeq sp' l') = list_eqb cnode_eqb l l'. Proof. reflexivity. Qed.
Lemma ceqb_map sp sp' l l' : cnode_eqb (CMap sp l) (CMap sp' l') = pairs_eqb cnode_eqb l l'. Proof. reflexivity. Qed.

Lemma chash_erase : forall c, chash c = hash_stream (erase c).
Proof.
  induction c as [sp o s st tg|sp v|sp l IH|sp l IH|sp n|sp] using cnode_ind'; try reflexivity.
  - destruct v; reflexivity.
  - rewrite chash_seq, erase_seq, hash_seq, map_length. do 2 f_equal. apply flat_map_map_Forall. exact IH.
  - rewrite chash_map, erase_map, hash_map. f_equal. apply pflat_pmap. exact IH.
Qed.

Lemma ceqb_erase : forall a b, cnode_eqb a b = hyaml_eqb (erase a) (erase b).
Proof.
  induction a as [sp o s st tg|sp v|sp l IH|sp l IH|sp n|sp] using cnode_ind'; intros b; destruct b; try reflexivity.
  - destruct v, v0; reflexivity.
  - rewrite ceqb_seq, !erase_seq, eqb_seq. apply list_eqb_map. exact IH.
  - rewrite ceqb_map, !erase_map, eqb_map. apply pairs_eqb_pmap. exact IH.
Qed.

Lemma ceq_implies_chash a b : cnode_eqb a b = true -> chash a = chash b.
Proof. rewrite ceqb_erase, !chash_erase. apply eq_implies_hash. Qed.
(* copies of the same content (Yaml vs YamlOwned vs MarkedYaml vs MarkedYamlOwned, any spans, any mix of
   borrowed and owned strings) are equal and receive the same hasher calls *)
Lemma same_content_eq_hash a b : erase a = erase b -> cnode_eqb a b = true /\ chash a = chash b.
Proof. intros E. rewrite ceqb_erase, !chash_erase, E. split; [apply hyaml_eqb_refl|reflexivity]. Qed.

Lemma concrete_factor a b : cnode_eqb a b = hyaml_eqb (erase a) (erase b) /\ chash a = hash_stream (erase a).
Proof. split; [apply ceqb_erase|apply chash_erase]. Qed.

Lemma non_string_key_never_found fin marked k m :
  (forall c v, In (c, v) m -> as_str c <> Some k) ->
  as_mapping_get fin marked k (HMap m) = None /\ contains_mapping_key fin marked k (HMap m) = false /\
  index_str fin marked k (HMap m) = IPanic p_key_not_found /\ get_explicit fin k (HMap m) = None.
Proof.
  intros H. destruct (string_lookups_agree fin marked k m) as (A & B & C & _ & E).
  rewrite A, B, C, E, (spec_get_nonstring k m H). repeat split; reflexivity.
Qed.

(* nodes of the loader model *)
Lemma of_yaml_seq fb l : of_yaml fb (YSeq l) = HSeq (map (of_yaml fb) l). Proof. reflexivity. Qed.
Lemma of_yaml_map fb l : of_yaml fb (YMap l) = HMap (pmap (of_yaml fb) l). Proof. reflexivity. Qed.

Section OfYaml.
  (* the bits of the double a decimal of the loader model denotes; only its compatibility with the model's float
     equality is needed *)
  Variable fbits : fval -> N.
  Hypothesis fbits_eq : forall x y, feqb x y = true -> ofloat_eqb (fbits x) (fbits y) = true.

  Lemma of_yaml_eqb : forall a b, yaml_eqb a b = true -> hyaml_eqb (of_yaml fbits a) (of_yaml fbits b) = true.
  Proof.
    induction a as [v|l IH|l IH|] using yaml_ind2; intros b H; destruct b; try discriminate H.
    - cbn [yaml_eqb] in H. cbn [of_yaml hyaml_eqb]. destruct v, v0; cbn [scalar_eqb] in H; try discriminate H;
        cbn [of_scalar hscalar_eqb]; auto.
    - rewrite yaml_eqb_seq in H. rewrite !of_yaml_seq, eqb_seq.
      exact (list_eqb_map_true yaml_eqb hyaml_eqb (of_yaml fbits) l IH _ H).
    - rewrite yaml_eqb_map in H. rewrite !of_yaml_map, eqb_map.
      exact (pairs_eqb_pmap_true yaml_eqb hyaml_eqb (of_yaml fbits) l IH _ H).
    - reflexivity.
  Qed.
  (* keys the loader model considers equal hash equally *)
  Lemma of_yaml_eq_hash a b : yaml_eqb a b = true -> hash_stream (of_yaml fbits a) = hash_stream (of_yaml fbits b).
  Proof. intros H. apply eq_implies_hash, of_yaml_eqb, H. Qed.
End OfYaml.
