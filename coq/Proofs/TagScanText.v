(* C16 — the scanner half at TEXT level: what the scanner model (string back-end) returns on tag texts.

   For every tag text built from tag characters and percent-escapes — verbatim `!<uri>`, named `!name!suffix`
   (including `!!suffix`), local `!suffix`, lone `!` — [scan_tag] returns the TTag token with the handle and the
   percent-DECODED suffix ([scan_tag_verbatim], [scan_tag_named], [scan_tag_local]); for every `%TAG` line
   [scan_directive] returns the TTagDirective token with the handle and the decoded prefix
   ([scan_tag_directive_value_text], [scan_directive_tag_text]).  "Decoded" is the specification's
   [percent_decode] (Spec/TagSpec.v), through the exactness theorem of Proofs/TagUtf8.v.

   Technique: states are kept in the form [st l lk m w s] (text left, lookahead counter, mark, leading-whitespace
   flag over a base state s); each primitive of the monad has an equation on that form; loops have one lemma each,
   for any fuel larger than the text they consume. *)
From Coq Require Import List NArith ZArith Bool Lia.
Import ListNotations.
Require Import Parser TagSpec SBase SPrim SDir TagUtf8 ScalarKit ListKit.
Open Scope N_scope.
Open Scope mon_scope.

(* 0. The specification's percent_decode as a relation *)
Inductive decodes : list N -> list N -> Prop :=
| dec_nil : decodes [] []
| dec_char : forall c l t, c <> 37 -> decodes l t -> decodes (c :: l) (c :: t)
| dec_esc : forall l d r t, take_escaped_char l = Some (d, r) -> decodes r t -> decodes l (d :: t).

Lemma take_escaped_char_shorter : forall l d r, take_escaped_char l = Some (d, r) -> (length r < length l)%nat.
Proof.
  intros l d r H. apply take_escaped_char_spells in H. destruct H as [es [bs [-> [HS HD]]]].
  rewrite app_length, (spells_length _ _ HS). destruct bs; [discriminate|]. cbn [length]. lia.
Qed.

Lemma take_escaped_char_head : forall l d r, take_escaped_char l = Some (d, r) -> exists l', l = 37 :: l'.
Proof.
  intros l d r H. unfold take_escaped_char in H. destruct (take_escape l) as [[b r1]|] eqn:E; [|discriminate].
  destruct (take_escape_inv _ _ _ E) as [x [y [hi [lo [-> _]]]]]. eexists. reflexivity.
Qed.

Lemma percent_decode_fuel_decodes : forall fuel l t,
  (length l <= fuel)%nat -> (percent_decode_fuel fuel l = Some t <-> decodes l t).
Proof.
  induction fuel as [|fuel IH]; intros l t HL.
  - destruct l; [|cbn in HL; lia]. cbn. split; intros H.
    + inversion H. constructor.
    + inversion H as [| |l0 d r t0 HE]; subst; [reflexivity|]. discriminate.
  - cbn [percent_decode_fuel]. destruct l as [|c r].
    + split; intros H.
      * inversion H. constructor.
      * inversion H as [| |l0 d r t0 HE]; subst; [reflexivity|]. discriminate.
    + unfold percent. destruct (N.eqb_spec c 37) as [->|Hc].
      * destruct (take_escaped_char (37 :: r)) as [[d r']|] eqn:E.
        -- pose proof (take_escaped_char_shorter _ _ _ E) as HS. cbn [length] in HS, HL.
           split; intros H.
           ++ destruct (percent_decode_fuel fuel r') as [t'|] eqn:E2; [|discriminate]. inversion H; subst.
              eapply dec_esc; [exact E|]. apply IH; [lia|exact E2].
           ++ inversion H as [|c0 l0 t0 Hne|l0 d0 r0 t0 HE HD]; subst; [congruence|].
              rewrite E in HE. inversion HE; subst. apply IH in HD; [|lia]. rewrite HD. reflexivity.
        -- split; intros H; [discriminate|].
           inversion H as [|c0 l0 t0 Hne|l0 d0 r0 t0 HE HD]; subst; [congruence|]. rewrite E in HE. discriminate.
      * cbn [length] in HL. split; intros H.
        -- destruct (percent_decode_fuel fuel r) as [t'|] eqn:E2; [|discriminate]. inversion H; subst.
           apply dec_char; [exact Hc|]. apply IH; [lia|exact E2].
        -- inversion H as [|c0 l0 t0 Hne HD|l0 d0 r0 t0 HE HD]; subst.
           ++ apply IH in HD; [|lia]. rewrite HD. reflexivity.
           ++ destruct (take_escaped_char_head _ _ _ HE) as [l' E']. inversion E'; subst. congruence.
Qed.

Theorem percent_decode_decodes : forall l t, percent_decode l = Some t <-> decodes l t.
Proof. intros l t. unfold percent_decode. apply percent_decode_fuel_decodes. lia. Qed.

Lemma decodes_fun : forall l t1, decodes l t1 -> forall t2, decodes l t2 -> t1 = t2.
Proof.
  intros l t1 H1 t2 H2. apply percent_decode_decodes in H1. apply percent_decode_decodes in H2. congruence.
Qed.

(* a text without '%' decodes to itself *)
Lemma decodes_plain : forall l, ~ In 37 l -> decodes l l.
Proof.
  induction l as [|c l IH]; intros H; [constructor|].
  apply dec_char; [intros ->; apply H; left; reflexivity|]. apply IH. intros HI. apply H. right. exact HI.
Qed.

Lemma decodes_app_plain : forall w l t, ~ In 37 w -> decodes l t -> decodes (w ++ l) (w ++ t).
Proof.
  induction w as [|c w IH]; intros l t H HD; [exact HD|]. cbn [app].
  apply dec_char; [intros ->; apply H; left; reflexivity|]. apply IH; [|exact HD]. intros HI. apply H. right. exact HI.
Qed.

(* reading an escaped character does not depend on what follows it *)
Lemma take_escaped_char_app : forall l d r rest,
  take_escaped_char l = Some (d, r) -> take_escaped_char (l ++ rest) = Some (d, r ++ rest).
Proof.
  intros l d r rest H. apply take_escaped_char_spells in H. destruct H as [es [bs [-> [HS HD]]]].
  apply take_escaped_char_spells. exists es, bs. rewrite app_assoc. auto.
Qed.

(* 1. Scanner states in the form [st l lk m w s] and the primitives on them *)
Definition st (l : list N) (lk : nat) (m : marker) (w : bool) (s : sc strin) : sc strin :=
  set_lws w (set_mark m (set_in {| si_chars := l; si_look := lk |} s)).

Lemma st_st : forall l lk m w l' lk' m' w' s, st l lk m w (st l' lk' m' w' s) = st l lk m w s.
Proof. reflexivity. Qed.

Lemma st_self : forall s, st (si_chars (sc_in s)) (si_look (sc_in s)) (sc_mark s) (sc_lws s) s = s.
Proof. intros s. destruct s as [[chars lk] ? ? ? ? ? ? ? ? ? ? ? ? ? ?]. reflexivity. Qed.

Lemma st_chars : forall l lk m w s, si_chars (sc_in (st l lk m w s)) = l.
Proof. reflexivity. Qed.
Lemma st_look : forall l lk m w s, si_look (sc_in (st l lk m w s)) = lk.
Proof. reflexivity. Qed.
Lemma st_mark : forall l lk m w s, sc_mark (st l lk m w s) = m.
Proof. reflexivity. Qed.
Lemma st_lws : forall l lk m w s, sc_lws (st l lk m w s) = w.
Proof. reflexivity. Qed.
Lemma st_flow_level : forall l lk m w s, sc_flow_level (st l lk m w s) = sc_flow_level s.
Proof. reflexivity. Qed.

Lemma look_st : forall n l lk m w s, look str_ops n (st l lk m w s) = SBase.Ok (tt, st l (Nat.max lk n) m w s).
Proof. reflexivity. Qed.
Lemma peekn_st : forall k l lk m w s, peekn str_ops k (st l lk m w s) = SBase.Ok (@nth N k l 0, st l lk m w s).
Proof. reflexivity. Qed.
Lemma peek_st : forall l lk m w s, peek str_ops (st l lk m w s) = SBase.Ok (@nth N 0 l 0, st l lk m w s).
Proof. reflexivity. Qed.
Lemma look_ch_st : forall l lk m w s,
  look_ch str_ops (st l lk m w s) = SBase.Ok (@nth N 0 l 0, st l (Nat.max lk 1) m w s).
Proof. reflexivity. Qed.
Lemma mark_st : forall l lk m w s, mark (st l lk m w s) = SBase.Ok (m, st l lk m w s).
Proof. reflexivity. Qed.
Lemma flow_level_st : forall l lk m w s, flow_level (st l lk m w s) = SBase.Ok (sc_flow_level s, st l lk m w s).
Proof. reflexivity. Qed.
Lemma in_skip_st : forall l lk m w s, in_skip str_ops (st l lk m w s) = SBase.Ok (tt, st (tl l) lk m w s).
Proof. reflexivity. Qed.
Lemma adv_mark_st : forall n l lk m w s, adv_mark n (st l lk m w s) = SBase.Ok (tt, st l lk (adv n m) w s).
Proof. reflexivity. Qed.
Lemma skip_non_blank_st : forall l lk m w s,
  skip_non_blank str_ops (st l lk m w s) = SBase.Ok (tt, st (tl l) lk (adv 1 m) false s).
Proof. reflexivity. Qed.
Lemma skip_blank_st : forall l lk m w s,
  skip_blank str_ops (st l lk m w s) = SBase.Ok (tt, st (tl l) lk (adv 1 m) w s).
Proof. reflexivity. Qed.
Lemma skip_n_non_blank_st : forall n l lk m w s,
  skip_n_non_blank str_ops n (st l lk m w s) = SBase.Ok (tt, st (skipn n l) lk (adv (N.of_nat n) m) false s).
Proof. reflexivity. Qed.
Lemma nth_char_is_st : forall k c l lk m w s,
  nth_char_is str_ops k c (st l lk m w s) = SBase.Ok (@nth N k l 0 =? c, st l lk m w s).
Proof. reflexivity. Qed.
Lemma ret_st : forall {A} (a : A) (s : sc strin), ret a s = SBase.Ok (a, s).
Proof. reflexivity. Qed.

(* the states of Proofs/TagUtf8.v in this form *)
Lemma eat3_st : forall l lk m w s, eat 3 (st l lk m w s) = st (skipn 3 l) (Nat.max lk 3) (adv 3 m) false s.
Proof. reflexivity. Qed.

(* stated for a variable state: on a state in [st] form the same unfolding, done by [cbn], is slow to check *)
Lemma eats_S : forall n s, eats (S n) s = eats n (eat 3 s).
Proof. reflexivity. Qed.

Lemma eats_st : forall n l lk m w s, (0 < n)%nat ->
  eats n (st l lk m w s) = st (skipn (3 * n) l) (Nat.max lk 3) (adv (N.of_nat (3 * n)) m) false s.
Proof.
  induction n as [|n IH]; intros l lk m w s Hn; [lia|].
  rewrite eats_S, eat3_st. destruct n as [|n]; [reflexivity|].
  rewrite IH by lia. rewrite skipn_add, adv_adv, <- Nat.max_assoc, Nat.max_id.
  rewrite (Nat.mul_succ_r 3 (S n)), (Nat.add_comm _ 3), Nat2N.inj_add. reflexivity.
Qed.

(* the scanner on a text that begins with an escaped character: the escapes are 3k characters beginning with '%',
   and exactly they are consumed *)
Lemma scan_escape_st : forall mk l d r, take_escaped_char l = Some (d, r) ->
  exists es k, l = 37 :: es ++ r /\ length (37 :: es) = (3 * k)%nat /\
    forall rest lk m w s,
      scan_uri_escapes str_ops mk (st (37 :: es ++ r ++ rest) lk m w s)
      = SBase.Ok (d, st (r ++ rest) (Nat.max lk 3) (adv (N.of_nat (3 * k)) m) false s).
Proof.
  intros mk l d r H. destruct (proj1 (take_escaped_char_spells _ _ _) H) as [es [bs [-> [HS HU]]]].
  destruct HS as [|x y hi lo es bs Hx Hy HS]; [discriminate HU|].
  pose proof (spells_cons _ _ _ _ _ _ Hx Hy HS) as HS'.
  exists (x :: y :: es), (length ((hi * 16 + lo) :: bs)). split; [reflexivity|]. split; [exact (spells_length _ _ HS')|].
  intros rest lk m w s.
  change (37 :: (x :: y :: es) ++ r ++ rest) with ((37 :: x :: y :: es) ++ r ++ rest).
  rewrite (scan_uri_escapes_decodes _ d _ (r ++ rest) mk (st ((37 :: x :: y :: es) ++ r ++ rest) lk m w s) HU HS' eq_refl).
  rewrite eats_st by (cbn [length]; lia).
  rewrite <- (spells_length _ _ HS'), skipn_app, skipn_all, Nat.sub_diag. reflexivity.
Qed.

(* one step of a tactic that runs straight-line monadic code on a state in [st] form *)
Ltac prim_eq :=
  lazymatch goal with
  | |- look _ _ _ = _ => apply look_st
  | |- peekn _ _ _ = _ => apply peekn_st
  | |- peek _ _ = _ => apply peek_st
  | |- look_ch _ _ = _ => apply look_ch_st
  | |- mark _ = _ => apply mark_st
  | |- flow_level _ = _ => apply flow_level_st
  | |- in_skip _ _ = _ => apply in_skip_st
  | |- adv_mark _ _ = _ => apply adv_mark_st
  | |- skip_non_blank _ _ = _ => apply skip_non_blank_st
  | |- skip_blank _ _ = _ => apply skip_blank_st
  | |- skip_n_non_blank _ _ _ = _ => apply skip_n_non_blank_st
  | |- nth_char_is _ _ _ _ = _ => apply nth_char_is_st
  | |- ret _ _ = _ => apply ret_st
  end.
Ltac mstep := rewrite ?bind_assoc; erewrite bind_Ok; [|prim_eq]; cbv beta.
(* equalities of results that differ only in arithmetic *)
Ltac fin_eq := solve [ reflexivity | lia | f_equal; fin_eq ].

(* 2. The uri loop: `while is_X(look_ch) { push the character, or decode an escape }` *)
Section UL.
Variables (p : N -> bool) (mk : marker).
Fixpoint ul_go (f : nat) (acc : list N) (n : N) : @M strin (list N * N) :=
  match f with
  | O => oof
  | S f =>
    c <- look_ch str_ops ;;
    if p c then
      if c =? 37 then e <- scan_uri_escapes str_ops mk ;; ul_go f (e :: acc) (n + 1)
      else skip_non_blank str_ops ;;; ul_go f (c :: acc) (n + 1)
    else ret (acc, n)
  end.
End UL.

Lemma uri_loop_go : forall F p mk acc, uri_loop str_ops F p mk acc = ul_go p mk F acc 0.
Proof. reflexivity. Qed.

Definition lws_after (l : list N) (w : bool) : bool := match l with [] => w | _ => false end.

(* the loop on a text [l] of characters of the class (escapes included) that decodes to [t], followed by a
   character outside the class (or the end of input): it returns the decoded text, pushed in reverse on the
   accumulator, counts the characters, and has consumed exactly [l] *)
Lemma ul_go_text : forall p mk l t, decodes l t -> Forall (fun c => p c = true) l ->
  forall f acc n rest lk m w s, p (hd 0 rest) = false -> (length l < f)%nat ->
  exists lk', (lk <= lk')%nat /\
    ul_go p mk f acc n (st (l ++ rest) lk m w s) =
    SBase.Ok ((rev t ++ acc, n + N.of_nat (length t)),
              st rest lk' (adv (N.of_nat (length l)) m) (lws_after l w) s).
Proof.
  intros p mk l t HD. induction HD as [|c l t Hc HD IH|l d r t HE HD IH]; intros HF f acc n rest lk m w s HR HL.
  - destruct f as [|f]; [cbn in HL; lia|]. cbn [ul_go app length lws_after rev]. mstep.
    replace (@nth N 0 rest 0) with (hd 0 rest) by (destruct rest; reflexivity). rewrite HR.
    exists (Nat.max lk 1). split; [lia|]. change (N.of_nat 0) with 0. rewrite adv_0, N.add_0_r. reflexivity.
  - destruct f as [|f]; [cbn in HL; lia|]. cbn [length] in HL. inversion HF as [|? ? Hpc HF']; subst.
    cbn [ul_go app]. mstep. cbn [nth]. rewrite Hpc. rewrite (proj2 (N.eqb_neq c 37) Hc). mstep. cbn [tl].
    destruct (IH HF' f (c :: acc) (n + 1) rest (Nat.max lk 1) (adv 1 m) false s HR ltac:(lia)) as [lk' [Hlk E]].
    exists lk'. split; [lia|]. refine (eq_trans E _). cbn [lws_after length rev]. rewrite adv_adv.
    replace (lws_after l false) with false by (destruct l; reflexivity).
    rewrite <- app_assoc. cbn [app]. fin_eq.
  - destruct f as [|f]; [cbn in HL; lia|].
    destruct (scan_escape_st mk _ _ _ HE) as [es [k [-> [Hk E]]]].
    inversion HF as [|? ? Hp37 HF0]; subst.
    assert (HFr : Forall (fun c => p c = true) r) by (apply Forall_app in HF0; apply HF0).
    cbn [app]. rewrite <- app_assoc. cbn [ul_go]. mstep. cbn [nth]. rewrite Hp37. change (37 =? 37) with true. cbv iota.
    erewrite bind_Ok; [|apply E].
    cbn [length] in HL, Hk. rewrite app_length in HL.
    destruct (IH HFr f (d :: acc) (n + 1) rest (Nat.max (Nat.max lk 1) 3) (adv (N.of_nat (3 * k)) m) false s HR ltac:(lia))
      as [lk' [Hlk E']].
    exists lk'. split; [lia|]. refine (eq_trans E' _). cbn [lws_after length rev]. rewrite adv_adv.
    replace (lws_after r false) with false by (destruct r; reflexivity).
    rewrite <- app_assoc. cbn [app]. rewrite app_length. fin_eq.
Qed.

(* 3. The counting loops of input.rs *)
Fixpoint fa_go (f : nat) (acc : list N) (k : N) : @M strin (list N * N) :=
  match f with
  | O => oof
  | S f => c <- look_ch str_ops ;; if is_alpha c then in_skip str_ops ;;; fa_go f (c :: acc) (k + 1) else ret (acc, k)
  end.
Lemma in_fetch_while_alpha_go : forall fuel acc, in_fetch_while_alpha str_ops fuel acc = fa_go fuel acc 0.
Proof. reflexivity. Qed.

Lemma nth0_hd : forall (l : list N), @nth N 0 l 0 = hd 0 l.
Proof. destruct l; reflexivity. Qed.

Lemma fa_go_text : forall w, Forall (fun c => is_alpha c = true) w ->
  forall f acc k rest lk m ws s, is_alpha (hd 0 rest) = false -> (length w < f)%nat ->
  fa_go f acc k (st (w ++ rest) lk m ws s) =
  SBase.Ok ((rev w ++ acc, k + N.of_nat (length w)), st rest (Nat.max lk 1) m ws s).
Proof.
  induction w as [|c w IH]; intros HF f acc k rest lk m ws s HR HL.
  - destruct f as [|f]; [cbn in HL; lia|]. cbn [fa_go app length rev]. mstep. rewrite nth0_hd, HR.
    change (N.of_nat 0) with 0. rewrite N.add_0_r. reflexivity.
  - destruct f as [|f]; [cbn in HL; lia|]. cbn [length] in HL. inversion HF as [|? ? Hc HF']; subst.
    cbn [fa_go app]. mstep. cbn [nth]. rewrite Hc. mstep. cbn [tl].
    refine (eq_trans (IH HF' f (c :: acc) (k + 1) rest (Nat.max lk 1) m ws s HR ltac:(lia)) _).
    rewrite <- Nat.max_assoc, Nat.max_id. cbn [rev length]. rewrite <- app_assoc. cbn [app]. fin_eq.
Qed.

Section SW.
Variable p : N -> bool.
Fixpoint sw_go (f : nat) (k : N) : @M strin N :=
  match f with
  | O => oof
  | S f => c <- look_ch str_ops ;; if p c then in_skip str_ops ;;; sw_go f (k + 1) else ret k
  end.
End SW.
Lemma in_skip_while_go : forall fuel p, in_skip_while str_ops fuel p = sw_go p fuel 0.
Proof. reflexivity. Qed.

Lemma sw_go_text : forall p w, Forall (fun c => p c = true) w ->
  forall f k rest lk m ws s, p (hd 0 rest) = false -> (length w < f)%nat ->
  sw_go p f k (st (w ++ rest) lk m ws s) = SBase.Ok (k + N.of_nat (length w), st rest (Nat.max lk 1) m ws s).
Proof.
  intros p. induction w as [|c w IH]; intros HF f k rest lk m ws s HR HL.
  - destruct f as [|f]; [cbn in HL; lia|]. cbn [sw_go app length]. mstep. rewrite nth0_hd, HR.
    change (N.of_nat 0) with 0. rewrite N.add_0_r. reflexivity.
  - destruct f as [|f]; [cbn in HL; lia|]. cbn [length] in HL. inversion HF as [|? ? Hc HF']; subst.
    cbn [sw_go app]. mstep. cbn [nth]. rewrite Hc. mstep. cbn [tl].
    refine (eq_trans (IH HF' f (k + 1) rest (Nat.max lk 1) m ws s HR ltac:(lia)) _).
    rewrite <- Nat.max_assoc, Nat.max_id. cbn [length]. fin_eq.
Qed.

(* blanks, then the mark is moved: `n <- in_skip_while_blank ;; adv_mark n` *)
Lemma skip_blanks_text : forall F w rest lk m ws s (A : Type) (k : @M strin A),
  Forall (fun c => is_blank c = true) w -> is_blank (hd 0 rest) = false -> (length w < F)%nat ->
  (n <- in_skip_while_blank str_ops F ;; adv_mark n ;;; k) (st (w ++ rest) lk m ws s)
  = k (st rest (Nat.max lk 1) (adv (N.of_nat (length w)) m) ws s).
Proof.
  intros F w rest lk m ws s A k HF HR HL. unfold in_skip_while_blank. rewrite in_skip_while_go.
  erewrite bind_Ok; [|apply sw_go_text; assumption]. mstep. rewrite N.add_0_l. reflexivity.
Qed.

(* 4. scan_tag_handle *)
Lemma is_alpha_33 : is_alpha 33 = false.
Proof. reflexivity. Qed.

(* `!name!` (name possibly empty: `!!`) *)
Lemma scan_tag_handle_named : forall F directive mk name rest lk m w s,
  Forall (fun c => is_alpha c = true) name -> (length name < F)%nat ->
  scan_tag_handle str_ops F directive mk (st (33 :: name ++ 33 :: rest) lk m w s)
  = SBase.Ok (33 :: name ++ [33], st rest (Nat.max lk 1) (adv (2 + N.of_nat (length name)) m) false s).
Proof.
  intros F directive mk name rest lk m w s HF HL. unfold scan_tag_handle.
  mstep. cbn [nth]. change (negb (33 =? 33)) with false. cbv iota. mstep. cbn [tl].
  rewrite in_fetch_while_alpha_go.
  erewrite bind_Ok; [|apply fa_go_text; [exact HF|reflexivity|exact HL]]. cbn [fst snd].
  mstep. mstep. cbn [nth]. change (33 =? 33) with true. cbv iota. mstep. cbn [tl].
  unfold ret. rewrite <- Nat.max_assoc, Nat.max_id, !adv_adv.
  cbn [rev]. rewrite rev_app_distr, rev_involutive. cbn [rev app]. rewrite N.add_0_l. fin_eq.
Qed.

(* `!` followed by word characters and then neither a word character nor `!`: the primary handle, which the
   scanner reports together with the word characters it has already consumed *)
Lemma scan_tag_handle_primary : forall F directive mk wd rest lk m w s,
  Forall (fun c => is_alpha c = true) wd -> (length wd < F)%nat ->
  is_alpha (hd 0 rest) = false -> hd 0 rest <> 33 -> (directive = true -> wd = []) ->
  scan_tag_handle str_ops F directive mk (st (33 :: wd ++ rest) lk m w s)
  = SBase.Ok (33 :: wd, st rest (Nat.max lk 1) (adv (1 + N.of_nat (length wd)) m) false s).
Proof.
  intros F directive mk wd rest lk m w s HF HL HR H33 HD. unfold scan_tag_handle.
  mstep. cbn [nth]. change (negb (33 =? 33)) with false. cbv iota. mstep. cbn [tl].
  rewrite in_fetch_while_alpha_go.
  erewrite bind_Ok; [|apply fa_go_text; [exact HF|exact HR|exact HL]]. cbn [fst snd].
  mstep. mstep. rewrite nth0_hd. rewrite (proj2 (N.eqb_neq _ _) H33).
  assert (HX : directive && negb (match rev wd ++ [33] with [33] => true | _ => false end) = false).
  { destruct directive; [|reflexivity]. rewrite (HD eq_refl). reflexivity. }
  unfold chr. rewrite HX. unfold ret. rewrite <- Nat.max_assoc, Nat.max_id, !adv_adv.
  rewrite rev_app_distr, rev_involutive. cbn [rev app]. rewrite N.add_0_l. fin_eq.
Qed.

(* 5. Character classes (generated from char_traits.rs): the few facts needed *)
Lemma bbz_cases : forall c, is_blank_or_breakz c = true -> c = 32 \/ c = 9 \/ c = 10 \/ c = 13 \/ c = 0.
Proof.
  intros c H. unfold is_blank_or_breakz, is_blank, is_breakz, is_break, is_z in H.
  repeat (apply orb_true_iff in H; destruct H as [H|H]); apply N.eqb_eq in H; auto.
Qed.
Lemma flow_cases : forall c, is_flow c = true -> c = 44 \/ c = 91 \/ c = 93 \/ c = 123 \/ c = 125.
Proof.
  intros c H. unfold is_flow in H.
  repeat (apply orb_true_iff in H; destruct H as [H|H]); apply N.eqb_eq in H; auto.
Qed.

(* what may follow a tag: a blank, a break, the end of input, or (in flow context) a flow indicator *)
Definition tag_end (fl : N) (c : N) : bool := is_blank_or_breakz c || ((0 <? fl) && is_flow c).

Lemma tag_end_facts : forall fl c, tag_end fl c = true ->
  is_tag_char c = false /\ is_alpha c = false /\ c <> 33 /\ c <> 60.
Proof.
  intros fl c H. unfold tag_end in H. apply orb_true_iff in H. destruct H as [H|H].
  - apply bbz_cases in H. destruct H as [->|[->|[->|[->| ->]]]]; repeat split; try reflexivity; discriminate.
  - apply andb_true_iff in H. destruct H as [_ H]. apply flow_cases in H.
    destruct H as [->|[->|[->|[->| ->]]]]; repeat split; try reflexivity; discriminate.
Qed.

Lemma bbz_not_uri : forall c, is_blank_or_breakz c = true -> is_uri_char c = false.
Proof. intros c H. apply bbz_cases in H. destruct H as [->|[->|[->|[->| ->]]]]; reflexivity. Qed.
Lemma bbz_not_alpha : forall c, is_blank_or_breakz c = true -> is_alpha c = false /\ c <> 33.
Proof. intros c H. apply bbz_cases in H. destruct H as [->|[->|[->|[->| ->]]]]; split; try reflexivity; discriminate. Qed.

Lemma tag_char_uri : forall c, is_tag_char c = true -> is_uri_char c = true.
Proof.
  intros c H. unfold is_tag_char in H. apply andb_true_iff in H. destruct H as [H _].
  apply andb_true_iff in H. destruct H as [H _]. exact H.
Qed.
Lemma tag_char_not : forall c, is_tag_char c = true -> c <> 33 /\ c <> 60.
Proof. intros c H. split; intros ->; discriminate H. Qed.
Lemma alpha_not : forall c, is_alpha c = true -> c <> 37 /\ c <> 33 /\ c <> 60.
Proof. intros c H. repeat split; intros ->; discriminate H. Qed.
Lemma alpha_tag_char : forall c, is_alpha c = true -> is_tag_char c = true.
Proof.
  intros c H. unfold is_tag_char, is_uri_char, is_word_char.
  destruct (N.eqb_spec c 95) as [->|H95]; [reflexivity|].
  rewrite H. cbn [negb andb orb].
  destruct (is_flow c) eqn:EF; [apply flow_cases in EF; destruct EF as [->|[->|[->|[->| ->]]]]; discriminate H|].
  destruct (N.eqb_spec c 33) as [->|]; [discriminate H|]. reflexivity.
Qed.

(* 6. Suffixes, verbatim tags, prefixes *)
Lemma decodes_nonempty : forall l t, decodes l t -> l <> [] -> t <> [].
Proof. intros l t H Hn. inversion H; subst; [contradiction|discriminate|discriminate]. Qed.

Lemma decodes_length : forall l t, decodes l t -> (length t <= length l)%nat.
Proof.
  intros l t H. induction H as [|c l t Hc HD IH|l d r t HE HD IH]; cbn [length]; [lia|lia|].
  pose proof (take_escaped_char_shorter _ _ _ HE). lia.
Qed.

(* `!name!` was read: the suffix must not be empty *)
Lemma shorthand_suffix_named : forall F mk l t rest lk m w s,
  decodes l t -> Forall (fun c => is_tag_char c = true) l -> l <> [] ->
  is_tag_char (hd 0 rest) = false -> (length l < F)%nat ->
  exists lk', (lk <= lk')%nat /\
    scan_tag_shorthand_suffix str_ops F [] mk (st (l ++ rest) lk m w s)
    = SBase.Ok (t, st rest lk' (adv (N.of_nat (length l)) m) false s).
Proof.
  intros F mk l t rest lk m w s HD HF Hne HR HL. unfold scan_tag_shorthand_suffix. cbv zeta. cbn [length tl].
  change (1 <? N.of_nat 0) with false. cbv iota. rewrite uri_loop_go.
  destruct (ul_go_text _ mk l t HD HF F [] 0 rest lk m w s HR HL) as [lk' [Hlk E]].
  exists lk'. split; [exact Hlk|]. erewrite bind_Ok; [|exact E]. cbn [fst snd].
  pose proof (decodes_nonempty _ _ HD Hne) as Ht.
  destruct t as [|t0 t]; [contradiction|].
  replace (N.of_nat 0 + (0 + N.of_nat (length (t0 :: t))) =? 0) with false
    by (symmetry; apply N.eqb_neq; cbn [length]; lia).
  unfold ret. rewrite app_nil_r, rev_involutive.
  replace (lws_after l w) with false by (destruct l; [contradiction|reflexivity]). reflexivity.
Qed.

(* `!` and the word characters [wd] were read by the handle scanner: they are the beginning of the suffix *)
Lemma shorthand_suffix_primary : forall F mk wd l t rest lk m w s,
  decodes l t -> Forall (fun c => is_tag_char c = true) l ->
  is_tag_char (hd 0 rest) = false -> (length l < F)%nat ->
  exists lk', (lk <= lk')%nat /\
    scan_tag_shorthand_suffix str_ops F (33 :: wd) mk (st (l ++ rest) lk m w s)
    = SBase.Ok (wd ++ t, st rest lk' (adv (N.of_nat (length l)) m) (lws_after l w) s).
Proof.
  intros F mk wd l t rest lk m w s HD HF HR HL. unfold scan_tag_shorthand_suffix. cbv zeta. cbn [length tl]. unfold chr.
  assert (HA : (if 1 <? N.of_nat (S (length wd)) then rev wd else []) = rev wd).
  { destruct wd as [|c wd]; [reflexivity|]. rewrite (proj2 (N.ltb_lt 1 _)) by (cbn [length]; lia). reflexivity. }
  rewrite HA. rewrite uri_loop_go.
  destruct (ul_go_text _ mk l t HD HF F (rev wd) 0 rest lk m w s HR HL) as [lk' [Hlk E]].
  exists lk'. split; [exact Hlk|]. erewrite bind_Ok; [|exact E]. cbn [fst snd].
  replace (N.of_nat (S (length wd)) + (0 + N.of_nat (length t)) =? 0) with false
    by (symmetry; apply N.eqb_neq; lia).
  unfold ret. rewrite rev_app_distr, !rev_involutive. reflexivity.
Qed.

(* `!<` uri `>` *)
Lemma scan_verbatim_tag_text : forall F mk l t rest lk m w s,
  decodes l t -> Forall (fun c => is_uri_char c = true) l -> (length l < F)%nat ->
  exists lk', (lk <= lk')%nat /\
    scan_verbatim_tag str_ops F mk (st (33 :: 60 :: l ++ 62 :: rest) lk m w s)
    = SBase.Ok (t, st rest lk' (adv (3 + N.of_nat (length l)) m) false s).
Proof.
  intros F mk l t rest lk m w s HD HF HL. unfold scan_verbatim_tag.
  mstep. mstep. cbn [tl]. rewrite uri_loop_go.
  destruct (ul_go_text _ mk l t HD HF F [] 0 (62 :: rest) lk (adv 1 (adv 1 m)) false s eq_refl HL) as [lk' [Hlk E]].
  exists lk'. split; [exact Hlk|]. erewrite bind_Ok; [|exact E]. cbn [fst snd].
  mstep. cbn [nth]. change (negb (62 =? 62)) with false. cbv iota. mstep. cbn [tl].
  unfold ret. rewrite app_nil_r, rev_involutive, !adv_adv. fin_eq.
Qed.

(* the prefix of a %TAG directive: `!` or a tag character (or escape) first, then uri characters *)
Definition prefix_text (l : list N) : Prop :=
  l <> [] /\ (hd 0 l = 33 \/ is_tag_char (hd 0 l) = true) /\ Forall (fun c => is_uri_char c = true) l.

Lemma scan_tag_prefix_text : forall F mk l t rest lk m w s,
  decodes l t -> prefix_text l -> is_uri_char (hd 0 rest) = false -> (length l < F)%nat ->
  exists lk', (lk <= lk')%nat /\
    scan_tag_prefix str_ops F mk (st (l ++ rest) lk m w s)
    = SBase.Ok (t, st rest lk' (adv (N.of_nat (length l)) m) false s).
Proof.
  intros F mk l t rest lk m w s HD [Hne [Hhd HF]] HR HL. unfold scan_tag_prefix.
  inversion HD as [|c l1 t1 Hc HD1|l0 d r t1 HE HD1]; subst; [contradiction| |].
  - (* an ordinary first character *)
    inversion HF as [|? ? Hu HF1]; subst. cbn [length] in HL. cbn [hd] in Hhd.
    cbn [app]. mstep. cbn [nth].
    destruct (ul_go_text _ mk l1 t1 HD1 HF1 F [c] 0 rest (Nat.max lk 1) (adv 1 m) false s HR ltac:(lia)) as [lk' [Hlk E]].
    exists lk'. split; [lia|].
    destruct (N.eqb_spec c 33) as [->|H33].
    + mstep. cbn [tl]. mstep. rewrite uri_loop_go. erewrite bind_Ok; [|exact E]. cbn [fst]. unfold ret.
      rewrite rev_app_distr, rev_involutive, adv_adv. cbn [rev app length].
      replace (lws_after l1 false) with false by (destruct l1; reflexivity). fin_eq.
    + destruct Hhd as [Hhd|Hhd]; [contradiction|]. rewrite Hhd. cbn [negb].
      rewrite (proj2 (N.eqb_neq c 37) Hc). mstep. cbn [tl]. mstep.
      rewrite uri_loop_go. erewrite bind_Ok; [|exact E]. cbn [fst]. unfold ret.
      rewrite rev_app_distr, rev_involutive, adv_adv. cbn [rev app length].
      replace (lws_after l1 false) with false by (destruct l1; reflexivity). fin_eq.
  - (* an escape first *)
    destruct (scan_escape_st mk _ _ _ HE) as [es [k [-> [Hk E]]]].
    assert (HFr : Forall (fun c => is_uri_char c = true) r).
    { change (37 :: es ++ r) with ((37 :: es) ++ r) in HF. apply Forall_app in HF. apply HF. }
    cbn [app]. rewrite <- app_assoc. mstep. cbn [nth].
    change (37 =? 33) with false. change (negb (is_tag_char 37)) with false. change (37 =? 37) with true. cbv iota.
    rewrite bind_assoc. erewrite bind_Ok; [|apply E]. mstep.
    cbn [length] in HL, Hk. rewrite app_length in HL.
    rewrite uri_loop_go.
    destruct (ul_go_text _ mk r t1 HD1 HFr F [d] 0 rest (Nat.max (Nat.max lk 1) 3)
                (adv (N.of_nat (3 * k)) m) false s HR ltac:(lia)) as [lk' [Hlk E']].
    exists lk'. split; [lia|]. erewrite bind_Ok; [|exact E']. cbn [fst]. unfold ret.
    rewrite rev_app_distr, rev_involutive, adv_adv. cbn [rev app].
    replace (lws_after r false) with false by (destruct r; reflexivity).
    cbn [length]. rewrite app_length. fin_eq.
Qed.

(* 7. scan_tag on the three spellings *)
Lemma scan_tag_tail : forall start h sfx rest lk m w s,
  tag_end (sc_flow_level s) (hd 0 rest) = true ->
  (c <- look_ch str_ops ;; fl <- flow_level ;;
   if is_blank_or_breakz c || ((0 <? fl) && is_flow c) then
     m <- mark ;; ret (mkspan start m, TTag h sfx)
   else fail 59 start) (st rest lk m w s)
  = SBase.Ok ((mkspan start m, TTag h sfx), st rest (Nat.max lk 1) m w s).
Proof.
  intros start h sfx rest lk m w s HE. mstep. mstep. rewrite nth0_hd. unfold tag_end in HE. rewrite HE.
  mstep. reflexivity.
Qed.

(* verbatim: `!<` uri `>` — the tag ("", decoded uri) *)
Theorem scan_tag_verbatim : forall F l t rest lk m w s,
  decodes l t -> Forall (fun c => is_uri_char c = true) l -> (length l < F)%nat ->
  tag_end (sc_flow_level s) (hd 0 rest) = true ->
  exists lk', (lk <= lk')%nat /\
    scan_tag str_ops F (st (33 :: 60 :: l ++ 62 :: rest) lk m w s)
    = SBase.Ok ((mkspan m (adv (3 + N.of_nat (length l)) m), TTag [] t),
                st rest lk' (adv (3 + N.of_nat (length l)) m) false s).
Proof.
  intros F l t rest lk m w s HD HF HL HE. unfold scan_tag.
  mstep. mstep. mstep. cbn [nth]. change (60 =? 60) with true. cbv iota.
  destruct (scan_verbatim_tag_text F m l t rest (Nat.max lk 2) m w s HD HF HL) as [lk' [Hlk E]].
  rewrite bind_assoc. erewrite bind_Ok; [|exact E]. mstep. cbn [fst snd].
  exists (Nat.max lk' 1). split; [lia|]. apply scan_tag_tail. exact HE.
Qed.

Lemma alpha_head_not_60 : forall name x, Forall (fun c => is_alpha c = true) name ->
  (@nth N 0 (name ++ 33 :: x) 0 =? 60) = false.
Proof.
  intros name x HF. destruct name as [|c name]; [reflexivity|]. cbn [app nth].
  inversion HF as [|? ? Hc _]; subst. apply N.eqb_neq. apply (alpha_not c Hc).
Qed.

Lemma last_app1 : forall (l : list N) a d, last (l ++ [a]) d = a.
Proof. induction l as [|x l IH]; intros a d; [reflexivity|]. cbn [app]. destruct (l ++ [a]) eqn:E; [destruct l; discriminate|]. rewrite <- E. cbn [last]. rewrite E. rewrite <- E. apply IH. Qed.

Lemma named_cond : forall name,
  (2 <=? N.of_nat (length (33 :: name ++ [33]))) && (hd 0 (33 :: name ++ [33]) =? 33)
  && (last (33 :: name ++ [33]) 0 =? 33) = true.
Proof.
  intros name. change (33 :: name ++ [33]) with ((33 :: name) ++ [33]). rewrite last_app1.
  cbn [app hd]. rewrite (proj2 (N.leb_le 2 _)) by (cbn [length]; rewrite app_length; cbn [length]; lia).
  reflexivity.
Qed.

(* named and secondary handles: `!name!suffix`, `!!suffix` — the tag ("!name!", decoded suffix) *)
Theorem scan_tag_named : forall F name l t rest lk m w s,
  Forall (fun c => is_alpha c = true) name -> decodes l t -> Forall (fun c => is_tag_char c = true) l -> l <> [] ->
  (length name + length l < F)%nat -> tag_end (sc_flow_level s) (hd 0 rest) = true ->
  exists lk', (lk <= lk')%nat /\
    scan_tag str_ops F (st (33 :: name ++ 33 :: l ++ rest) lk m w s)
    = SBase.Ok ((mkspan m (adv (2 + N.of_nat (length name) + N.of_nat (length l)) m), TTag (33 :: name ++ [33]) t),
                st rest lk' (adv (2 + N.of_nat (length name) + N.of_nat (length l)) m) false s).
Proof.
  intros F name l t rest lk m w s HN HD HF Hne HL HE. unfold scan_tag.
  mstep. mstep. mstep. cbn [nth]. rewrite (alpha_head_not_60 _ _ HN). cbv iota.
  rewrite bind_assoc. erewrite bind_Ok; [|apply scan_tag_handle_named; [exact HN|lia]].
  rewrite named_cond.
  destruct (tag_end_facts _ _ HE) as [HT _].
  destruct (shorthand_suffix_named F m l t rest (Nat.max (Nat.max lk 2) 1) (adv (2 + N.of_nat (length name)) m) false s
              HD HF Hne HT ltac:(lia)) as [lk' [Hlk E]].
  rewrite bind_assoc. erewrite bind_Ok; [|exact E]. mstep. cbn [fst snd].
  exists (Nat.max lk' 1). split; [lia|]. rewrite adv_adv. apply scan_tag_tail. exact HE.
Qed.

(* the longest prefix of word characters *)
Fixpoint alpha_split (l : list N) : list N * list N :=
  match l with
  | c :: r => if is_alpha c then let '(a, b) := alpha_split r in (c :: a, b) else ([], l)
  | [] => ([], [])
  end.
Lemma alpha_split_spec : forall l,
  l = fst (alpha_split l) ++ snd (alpha_split l) /\ Forall (fun c => is_alpha c = true) (fst (alpha_split l))
  /\ (snd (alpha_split l) <> [] -> is_alpha (hd 0 (snd (alpha_split l))) = false).
Proof.
  induction l as [|c l IH]; cbn [alpha_split].
  - split; [reflexivity|]. split; [constructor|]. intros H. contradiction.
  - destruct (is_alpha c) eqn:Ec.
    + destruct (alpha_split l) as [a b]. cbn [fst snd] in *. destruct IH as [H1 [H2 H3]].
      split; [cbn [app]; congruence|]. split; [constructor; assumption|exact H3].
    + cbn [fst snd app hd]. split; [reflexivity|]. split; [constructor|]. intros _. exact Ec.
Qed.

Lemma decodes_alpha_prefix : forall wd l t, Forall (fun c => is_alpha c = true) wd -> decodes (wd ++ l) t ->
  exists t2, t = wd ++ t2 /\ decodes l t2.
Proof.
  induction wd as [|c wd IH]; intros l t HF HD; [exists t; split; [reflexivity|exact HD]|].
  inversion HF as [|? ? Hc HF']; subst. cbn [app] in HD.
  inversion HD as [|c0 l0 t0 Hne HD0|l0 d r t0 HE HD0]; subst.
  - destruct (IH _ _ HF' HD0) as [t2 [-> H2]]. exists t2. split; [reflexivity|exact H2].
  - destruct (take_escaped_char_head _ _ _ HE) as [l' E]. inversion E; subst. discriminate Hc.
Qed.

(* local tags `!suffix` and the non-specific tag `!` *)
Theorem scan_tag_local : forall F l t rest lk m w s,
  decodes l t -> Forall (fun c => is_tag_char c = true) l -> (length l < F)%nat ->
  tag_end (sc_flow_level s) (hd 0 rest) = true ->
  exists lk', (lk <= lk')%nat /\
    scan_tag str_ops F (st (33 :: l ++ rest) lk m w s)
    = SBase.Ok ((mkspan m (adv (1 + N.of_nat (length l)) m), match t with [] => TTag [] [33] | _ => TTag [33] t end),
                st rest lk' (adv (1 + N.of_nat (length l)) m) false s).
Proof.
  intros F l t rest lk m w s HD HF HL HE. unfold scan_tag.
  destruct (tag_end_facts _ _ HE) as [HT [HA [H33 H60]]].
  destruct (alpha_split_spec l) as [Hl [Hwd Hl2]].
  set (wd := fst (alpha_split l)) in *. set (l2 := snd (alpha_split l)) in *. clearbody wd l2.
  assert (HF2 : Forall (fun c => is_tag_char c = true) l2) by (rewrite Hl in HF; apply Forall_app in HF; apply HF).
  rewrite Hl in HD. destruct (decodes_alpha_prefix _ _ _ Hwd HD) as [t2 [-> HD2]].
  assert (Hhd : forall x, x = hd 0 (l2 ++ rest) -> is_alpha x = false /\ x <> 33 /\ x <> 60).
  { intros x ->. destruct l2 as [|c l2']; [cbn [app]; auto|]. cbn [app hd].
    inversion HF2 as [|? ? Hc _]; subst. split; [apply Hl2; discriminate|]. apply (tag_char_not c Hc). }
  destruct (Hhd _ eq_refl) as [Ha [H3 H6]].
  mstep. mstep. mstep. cbn [nth].
  assert (H1 : (@nth N 0 (l ++ rest) 0 =? 60) = false).
  { rewrite nth0_hd. apply N.eqb_neq. rewrite Hl, <- app_assoc.
    destruct wd as [|c wd']; [exact H6|]. cbn [app hd]. inversion Hwd as [|? ? Hc _]; subst. apply (alpha_not c Hc). }
  rewrite H1. cbv iota.
  assert (HLl : (length l = length wd + length l2)%nat) by (rewrite Hl at 1; apply app_length).
  replace (33 :: l ++ rest) with (33 :: wd ++ l2 ++ rest) by (rewrite Hl, <- app_assoc; reflexivity).
  rewrite bind_assoc. erewrite bind_Ok; [|apply scan_tag_handle_primary; [exact Hwd|lia|exact Ha|exact H3|discriminate]].
  assert (HC : (2 <=? N.of_nat (length (33 :: wd))) && (hd 0 (33 :: wd) =? 33) && (last (33 :: wd) 0 =? 33) = false).
  { destruct wd as [|c wd'] eqn:Ew; [reflexivity|].
    assert (HX : last (33 :: c :: wd') 0 <> 33).
    { change (last (33 :: c :: wd') 0) with (last (c :: wd') 0).
      destruct (exists_last (l := c :: wd') ltac:(discriminate)) as [x [y E]]. rewrite E, last_app1.
      rewrite E in Hwd. apply Forall_app in Hwd. destruct Hwd as [_ Hy]. inversion Hy as [|? ? Hyy _]; subst.
      apply (alpha_not y Hyy). }
    rewrite (proj2 (N.eqb_neq _ _) HX). apply andb_false_r. }
  unfold chr. rewrite HC.
  destruct (shorthand_suffix_primary F m wd l2 t2 rest (Nat.max (Nat.max lk 2) 1) (adv (1 + N.of_nat (length wd)) m) false s
              HD2 HF2 HT ltac:(lia)) as [lk' [Hlk E]].
  rewrite bind_assoc. erewrite bind_Ok; [|exact E].
  replace (lws_after l2 false) with false by (destruct l2; reflexivity).
  exists (Nat.max lk' 1). split; [lia|].
  replace (adv (1 + N.of_nat (length l)) m) with (adv (N.of_nat (length l2)) (adv (1 + N.of_nat (length wd)) m))
    by (rewrite adv_adv; f_equal; lia).
  destruct (wd ++ t2); mstep; cbn [fst snd]; apply scan_tag_tail; exact HE.
Qed.

(* 8. The %TAG directive line *)
Lemma next_is_st : forall p l lk m w s, next_is str_ops p (st l lk m w s) = SBase.Ok (p (@nth N 0 l 0), st l lk m w s).
Proof. reflexivity. Qed.

Lemma blank_not_prefix_head : forall l, prefix_text l -> is_blank (hd 0 l) = false.
Proof.
  intros l [Hne [[H|H] _]]; [rewrite H; reflexivity|].
  destruct (is_blank (hd 0 l)) eqn:E; [|reflexivity].
  unfold is_blank in E. apply orb_true_iff in E. destruct E as [E|E]; apply N.eqb_eq in E; rewrite E in H; discriminate H.
Qed.

(* the handle of a directive: `!`, `!!` or `!name!` *)
Inductive dir_handle : list N -> Prop :=
| dh_primary : dir_handle [33]
| dh_named : forall name, Forall (fun c => is_alpha c = true) name -> dir_handle (33 :: name ++ [33]).

Lemma scan_tag_handle_directive : forall F mk h bl rest lk m w s,
  dir_handle h -> bl <> [] -> Forall (fun c => is_blank c = true) bl -> (length h < F)%nat ->
  scan_tag_handle str_ops F true mk (st (h ++ bl ++ rest) lk m w s)
  = SBase.Ok (h, st (bl ++ rest) (Nat.max lk 1) (adv (N.of_nat (length h)) m) false s).
Proof.
  intros F mk h bl rest lk m w s HH Hbl HB HL.
  destruct bl as [|b bl]; [contradiction|]. inversion HB as [|? ? Hb _]; subst.
  assert (Hb' : is_alpha b = false /\ b <> 33).
  { apply bbz_not_alpha. unfold is_blank_or_breakz. rewrite Hb. reflexivity. }
  inversion HH as [|name HN]; subst.
  - change ([33] ++ (b :: bl) ++ rest) with (33 :: [] ++ (b :: bl) ++ rest).
    refine (eq_trans (scan_tag_handle_primary F true mk [] ((b :: bl) ++ rest) lk m w s ltac:(constructor) ltac:(cbn; lia)
                        (proj1 Hb') (proj2 Hb') ltac:(reflexivity)) _). reflexivity.
  - cbn [length] in HL. rewrite app_length in HL. cbn [length] in HL.
    replace ((33 :: name ++ [33]) ++ (b :: bl) ++ rest) with (33 :: name ++ 33 :: (b :: bl) ++ rest)
      by (cbn [app]; rewrite <- app_assoc; reflexivity).
    refine (eq_trans (scan_tag_handle_named F true mk name ((b :: bl) ++ rest) lk m w s HN ltac:(lia)) _).
    cbn [length]. rewrite app_length. cbn [length]. fin_eq.
Qed.

(* `[blanks] handle blanks prefix` followed by a blank, a break or the end of input *)
Theorem scan_tag_directive_value_text : forall F mk bl1 h bl2 l t rest lk m w s,
  Forall (fun c => is_blank c = true) bl1 -> dir_handle h ->
  bl2 <> [] -> Forall (fun c => is_blank c = true) bl2 ->
  decodes l t -> prefix_text l -> is_blank_or_breakz (hd 0 rest) = true ->
  (length bl1 + length h + length bl2 + length l < F)%nat ->
  let n := N.of_nat (length bl1 + length h + length bl2 + length l) in
  exists lk', (lk <= lk')%nat /\
    scan_tag_directive_value str_ops F mk (st (bl1 ++ h ++ bl2 ++ l ++ rest) lk m w s)
    = SBase.Ok ((mkspan mk (adv n m), TTagDirective h t), st rest lk' (adv n m) false s).
Proof.
  intros F mk bl1 h bl2 l t rest lk m w s HB1 HH Hne2 HB2 HD HP HR HL n. unfold scan_tag_directive_value.
  assert (Hh : is_blank (hd 0 (h ++ bl2 ++ l ++ rest)) = false) by (inversion HH; reflexivity).
  rewrite (skip_blanks_text F bl1 _ lk m w s _ _ HB1 Hh ltac:(lia)).
  erewrite bind_Ok; [|apply scan_tag_handle_directive; [exact HH|exact Hne2|exact HB2|lia]].
  assert (Hl : is_blank (hd 0 (l ++ rest)) = false).
  { destruct l as [|c l']; [destruct HP as [HP _]; contradiction|]. exact (blank_not_prefix_head _ HP). }
  rewrite (skip_blanks_text F bl2 _ _ _ _ s _ _ HB2 Hl ltac:(lia)).
  destruct (scan_tag_prefix_text F mk l t rest (Nat.max (Nat.max (Nat.max lk 1) 1) 1)
              (adv (N.of_nat (length bl2)) (adv (N.of_nat (length h)) (adv (N.of_nat (length bl1)) m))) false s
              HD HP (bbz_not_uri _ HR) ltac:(lia)) as [lk' [Hlk E]].
  erewrite bind_Ok; [|exact E]. mstep. mstep. rewrite nth0_hd, HR. mstep.
  exists (Nat.max lk' 1). split; [lia|]. unfold ret. rewrite !adv_adv. unfold n. fin_eq.
Qed.

(* the rest of the line: nothing but the line feed *)
Lemma skip_ws_to_eol_none : forall F mode l lk m w s,
  F <> 0%nat -> hd 0 l <> 32 -> hd 0 l <> 9 -> hd 0 l <> 35 ->
  skip_ws_to_eol str_ops F mode (st l lk m w s) = SBase.Ok ((false, false), st l (Nat.max lk 1) m w s).
Proof.
  intros F mode l lk m w s HF H32 H9 H35. destruct F as [|F]; [contradiction|].
  unfold skip_ws_to_eol. cbn [in_skip_ws_to_eol]. rewrite bind_assoc. mstep. rewrite nth0_hd.
  rewrite (proj2 (N.eqb_neq _ _) H32), (proj2 (N.eqb_neq _ _) H9), (proj2 (N.eqb_neq _ _) H35).
  cbn [andb]. mstep. cbn [fst snd]. mstep. rewrite adv_0. reflexivity.
Qed.

Lemma assert_buflen_st : forall n site l lk m w s, (n <= lk)%nat ->
  assert_buflen str_ops n site (st l lk m w s) = SBase.Ok (tt, st l lk m w s).
Proof.
  intros n site l lk m w s H. unfold assert_buflen. change (buflen str_ops (sc_in (st l lk m w s))) with lk.
  rewrite (proj2 (Nat.ltb_ge lk n) H). reflexivity.
Qed.
Lemma skip_nl_st : forall l lk m w s, skip_nl str_ops (st l lk m w s) = SBase.Ok (tt, st (tl l) lk (nlm m) true s).
Proof. reflexivity. Qed.

Lemma skip_linebreak_lf : forall rest lk m w s, (2 <= lk)%nat ->
  skip_linebreak str_ops (st (10 :: rest) lk m w s) = SBase.Ok (tt, st rest lk (nlm m) true s).
Proof.
  intros rest lk m w s Hlk. unfold skip_linebreak, next_2_are. rewrite !bind_assoc.
  erewrite bind_Ok; [|apply assert_buflen_st; exact Hlk]. mstep. mstep. mstep. cbn [nth].
  change ((10 =? 13) && (@nth N 0 rest 0 =? 10)) with false. cbv iota. mstep. cbn [nth].
  change (is_break 10) with true. cbv iota. apply skip_nl_st.
Qed.


(* `%TAG blanks handle blanks prefix LF` *)
Theorem scan_directive_tag_text : forall F bl1 h bl2 l t rest lk m w s,
  bl1 <> [] -> Forall (fun c => is_blank c = true) bl1 -> dir_handle h ->
  bl2 <> [] -> Forall (fun c => is_blank c = true) bl2 ->
  decodes l t -> prefix_text l ->
  (4 + length bl1 + length h + length bl2 + length l < F)%nat ->
  let n := N.of_nat (4 + length bl1 + length h + length bl2 + length l) in
  exists lk', (lk <= lk')%nat /\
    scan_directive str_ops F (st (s_tag_line ++ bl1 ++ h ++ bl2 ++ l ++ 10 :: rest) lk m w s)
    = SBase.Ok ((mkspan m (adv n m), TTagDirective h t), st rest lk' (nlm (adv n m)) true s).
Proof.
  intros F bl1 h bl2 l t rest lk m w s Hne1 HB1 HH Hne2 HB2 HD HP HL n. unfold scan_directive, s_tag_line.
  cbn [app]. mstep. mstep. cbn [tl].
  (* the name *)
  unfold scan_directive_name. rewrite bind_assoc. mstep. rewrite in_fetch_while_alpha_go.
  assert (Hb1 : is_alpha (hd 0 (bl1 ++ h ++ bl2 ++ l ++ 10 :: rest)) = false
                /\ is_blank_or_breakz (hd 0 (bl1 ++ h ++ bl2 ++ l ++ 10 :: rest)) = true).
  { destruct bl1 as [|b bl1']; [contradiction|]. inversion HB1 as [|? ? Hb _]; subst. cbn [app hd].
    assert (Hz : is_blank_or_breakz b = true) by (unfold is_blank_or_breakz; rewrite Hb; reflexivity).
    split; [apply (bbz_not_alpha b Hz)|exact Hz]. }
  rewrite bind_assoc.
  erewrite bind_Ok;
    [|apply (fa_go_text [84; 65; 71] ltac:(repeat constructor) F [] 0 _ _ _ _ _ (proj1 Hb1) ltac:(cbn [length]; lia))].
  cbn [fst snd rev app length]. rewrite bind_assoc. mstep. rewrite bind_assoc. mstep. rewrite nth0_hd, (proj2 Hb1). mstep.
  change (str_eqb [84; 65; 71] s_YAML) with false. change (str_eqb [84; 65; 71] s_TAG) with true. cbv iota.
  (* the value *)
  destruct (scan_tag_directive_value_text F m bl1 h bl2 l t (10 :: rest) (Nat.max lk 1) (adv (0 + N.of_nat 3) (adv 1 m)) false s
              HB1 HH Hne2 HB2 HD HP eq_refl ltac:(lia)) as [lk' [Hlk E]]. cbv zeta in E.
  erewrite bind_Ok; [|exact E].
  erewrite bind_Ok; [|apply skip_ws_to_eol_none; [lia|discriminate|discriminate|discriminate]]. cbv beta iota.
  erewrite bind_Ok; [|apply next_is_st]. cbn [nth]. change (is_breakz 10) with true. cbv iota.
  mstep. erewrite bind_Ok; [|apply skip_linebreak_lf; lia]. unfold ret.
  exists (Nat.max (Nat.max lk' 1) 2). split; [lia|]. rewrite !adv_adv. unfold n. fin_eq.
Qed.
