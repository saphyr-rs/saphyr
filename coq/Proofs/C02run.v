(* Lift of the one-step invariant to whole runs of the pull parser, for arbitrary token streams.

   The run loops of the model (Pipe.parse_all, PipeL.parse_load, Lazy.lazy_run) are one loop, [iter], over
   different steps; what holds of a run is proved of [iter]. *)
From Coq Require Import List NArith Bool Lia.
Import ListNotations.
Require Import Parser SBase SPrim SDir SScalar SFetch Pipe Grammar C02base C02rest C02tail.

Definition evs_of (l : list (event * span)) : list event := map fst l.

Lemma grun_app g a b : grun g (a ++ b) = match grun g a with Some g' => grun g' b | None => None end.
Proof.
  revert g; induction a as [|e a IH]; intros g; cbn [app grun]; [reflexivity|].
  destruct (gstep g e); [apply IH|reflexivity].
Qed.

Lemma grun_snoc g0 l g e g' : grun g0 l = Some g -> gstep g e = Some g' -> grun g0 (l ++ [e]) = Some g'.
Proof. intros Hl He. rewrite grun_app, Hl. cbn [grun]. rewrite He. reflexivity. Qed.

Definition init_parser (toks : list token) (keep : bool) : parser :=
  {| p_toks := toks; p_token := None; p_states := []; p_state := SStreamStart;
     p_anchors := []; p_anchor_id := 1%N; p_tags := []; p_keep_tags := keep |}.

Lemma init_inv toks keep : Inv (init_parser toks keep) GInit.
Proof. unfold Inv; cbn. auto. Qed.

(* what a run may end with: a panic only where the scanner handed one on, with the scanner's site *)
Definition end_ok (se : scan_end) (r : pend) : Prop :=
  match r with
  | PPanic n => se = SPanic n
  | _ => True
  end.

(* the loop *)
Section Iter.
Variables (St A : Type) (fin : St -> bool) (step : St -> (A * St) + pend).

Fixpoint iter (fuel : nat) (s : St) (acc : list A) : list A * pend :=
  match fuel with
  | O => (rev acc, PFuel)
  | S fuel =>
    if fin s then (rev acc, PDone)
    else match step s with
         | inl (a, s') => iter fuel s' (a :: acc)
         | inr v => (rev acc, v)
         end
  end.

(* why the loop left [s] with [v] *)
Definition stopped (s : St) (v : pend) : Prop :=
  v = PFuel \/ (fin s = true /\ v = PDone) \/ (fin s = false /\ step s = inr v).

(* what every turn keeps holds where the loop stops *)
Lemma iter_inv (Q : St -> list A -> Prop) :
  (forall s acc a s', Q s acc -> fin s = false -> step s = inl (a, s') -> Q s' (a :: acc)) ->
  forall fuel s acc, Q s acc ->
  exists s' acc' v, iter fuel s acc = (rev acc', v) /\ Q s' acc' /\ stopped s' v.
Proof.
  intros HQ. induction fuel as [|fuel IH]; intros s acc H; cbn [iter].
  - exists s, acc, PFuel. split; [reflexivity|]. split; [exact H|]. left. reflexivity.
  - destruct (fin s) eqn:EF.
    + exists s, acc, PDone. split; [reflexivity|]. split; [exact H|]. right. left. auto.
    + destruct (step s) as [[a s']|v] eqn:ES.
      * apply IH. exact (HQ _ _ _ _ H EF ES).
      * exists s, acc, v. split; [reflexivity|]. split; [exact H|]. right. right. auto.
Qed.

Lemma iter_length : forall fuel s acc, (length (fst (iter fuel s acc)) <= fuel + length acc)%nat.
Proof.
  induction fuel as [|fuel IH]; intros s acc; cbn [iter]; [cbn [fst]; rewrite rev_length; lia|].
  destruct (fin s); [cbn [fst]; rewrite rev_length; lia|].
  destruct (step s) as [[a s']|v]; [|cbn [fst]; rewrite rev_length; lia].
  specialize (IH s' (a :: acc)). cbn [length] in IH. lia.
Qed.
End Iter.
Arguments iter {St A}.
Arguments stopped {St A}.
Arguments iter_inv {St A}.
Arguments iter_length {St A}.

Definition at_end (p : parser) : bool := match p_state p with SEnd => true | _ => false end.

Lemma if_at_end {T} p (a b : T) : match p_state p with SEnd => a | _ => b end = if at_end p then a else b.
Proof. unfold at_end. destruct (p_state p); reflexivity. Qed.
Lemma at_end_true p : at_end p = true -> p_state p = SEnd.
Proof. unfold at_end. destruct (p_state p); (reflexivity || discriminate). Qed.
Lemma at_end_false p : at_end p = false -> p_state p <> SEnd.
Proof. intros H E. unfold at_end in H. rewrite E in H. discriminate. Qed.

(* how the parser reports the way the scanner ended (Pipe.parse_all); a token list that ended properly and is exhausted all
   the same is Rust's "unexpected eof", site 0 at the zero marker *)
Definition verdict (se : scan_end) : pend :=
  match se with
  | SError s m => PScanErr s m
  | SPanic n => PPanic n
  | SFuel => PFuel
  | SEnded => PScanErr 0 {| m_index := 0; m_line := 0; m_col := 0 |}
  end.

(* one turn of Pipe.parse_all *)
Definition run_step (se : scan_end) (p : parser) : ((event * span) * parser) + pend :=
  match state_machine p with
  | Parser.Ok (ev, p') => inl (ev, p')
  | Parser.Err PErrScan => inr (verdict se)
  | Parser.Err (PErr s m) => inr (PParseErr s m)
  | Parser.Panic n => inr (PPanic n)
  end.

Definition step_result (fuel : nat) (p : parser) (se : scan_end) (acc : list (event * span)) :=
  match state_machine p with
  | Parser.Ok (ev, p') => parse_all fuel p' se (ev :: acc)
  | Parser.Err PErrScan =>
      (rev acc, match se with
                | SError s m => PScanErr s m
                | SPanic n => PPanic n
                | SFuel => PFuel
                | SEnded => PScanErr 0 {| m_index := 0; m_line := 0; m_col := 0 |}
                end)
  | Parser.Err (PErr s m) => (rev acc, PParseErr s m)
  | Parser.Panic n => (rev acc, PPanic n)
  end.

Lemma parse_all_S fuel p se acc :
  parse_all (S fuel) p se acc =
  match p_state p with SEnd => (rev acc, PDone) | _ => step_result fuel p se acc end.
Proof. cbn [parse_all]. destruct (p_state p); reflexivity. Qed.

Lemma parse_all_iter se : forall fuel p acc, parse_all fuel p se acc = iter at_end (run_step se) fuel p acc.
Proof.
  induction fuel as [|fuel IH]; intros p acc; [reflexivity|].
  rewrite parse_all_S, if_at_end. cbn [iter]. destruct (at_end p); [reflexivity|].
  unfold step_result, run_step. destruct (state_machine p) as [[ev p']|[|s m]|n]; [apply IH|reflexivity..].
Qed.

(* the grammar along a run *)
(* a step that emits what the acceptor takes, keeps the invariant, and fails only as [end_ok] allows *)
Definition accepted_step {A} (kind : A -> event) (se : scan_end) (step : parser -> (A * parser) + pend) : Prop :=
  forall p g, Inv p g -> p_state p <> SEnd ->
  match step p with
  | inl (a, p') => exists g', gstep g (kind a) = Some g' /\ Inv p' g'
  | inr v => v <> PDone /\ end_ok se v
  end.

Lemma iter_wellformed {A} (kind : A -> event) se step : accepted_step kind se step ->
  forall fuel p acc g, Inv p g -> grun GInit (map kind (rev acc)) = Some g ->
  let r := iter at_end step fuel p acc in
  exists g', grun GInit (map kind (fst r)) = Some g' /\ (snd r = PDone -> g' = GEnd) /\ end_ok se (snd r).
Proof.
  intros HS fuel p acc g HI Hg. cbv zeta.
  set (Q := fun p acc => exists g, Inv p g /\ grun GInit (map kind (rev acc)) = Some g).
  assert (HQ : forall q l a q', Q q l -> at_end q = false -> step q = inl (a, q') -> Q q' (a :: l)).
  { intros q l a q' (h & Ih & Hh) NE Eq. pose proof (HS q h Ih (at_end_false _ NE)) as HP. rewrite Eq in HP.
    destruct HP as (h' & Hs & Ih'). exists h'. split; [exact Ih'|].
    cbn [rev]. rewrite map_app. exact (grun_snoc _ _ _ _ _ Hh Hs). }
  destruct (iter_inv at_end step Q HQ fuel p acc (ex_intro _ g (conj HI Hg))) as (p' & acc' & v & -> & (g' & HI' & Hg') & HV).
  exists g'. cbn [fst snd]. split; [exact Hg'|].
  destruct HV as [->|[[E ->]|[NE Eq]]].
  - split; [discriminate|exact I].
  - split; [|exact I]. intros _. apply at_end_true in E. unfold Inv in HI'. rewrite E in HI'. apply HI'.
  - pose proof (HS p' g' HI' (at_end_false _ NE)) as HP. rewrite Eq in HP. destruct HP as [ND HE].
    split; [intros X; contradiction|exact HE].
Qed.

Lemma run_step_accepted se : accepted_step fst se (run_step se).
Proof.
  intros p g HI NE. unfold run_step. pose proof (state_machine_post p g HI NE) as HP.
  destruct (state_machine p) as [[[e sp] p']|[|s m]|n]; cbn [post] in HP.
  - exact HP.
  - split; destruct se; cbn; auto; discriminate.
  - split; [discriminate|exact I].
  - contradiction.
Qed.

Theorem parser_run_wellformed toks keep se fuel :
  let r := parse_all fuel (init_parser toks keep) se [] in
  (exists g, grun GInit (evs_of (fst r)) = Some g /\ (snd r = PDone -> g = GEnd))
  /\ end_ok se (snd r).
Proof.
  cbn zeta. rewrite parse_all_iter.
  destruct (iter_wellformed fst se _ (run_step_accepted se) fuel _ [] GInit (init_inv toks keep) eq_refl) as [g [A [B C]]].
  split; [exists g; auto | exact C].
Qed.
