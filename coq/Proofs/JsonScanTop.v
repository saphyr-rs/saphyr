(* C13, scanner half (6): the whole scanner model on a JSON text: the value at the top of the document (flow level 0)
   is brought in by the first fetch_more_tokens; StreamStart, the stale / pending root key, StreamEnd and the hand-out of
   the queued tokens by next_token are those of every flow text (FlowSkeleton.scan_doc_end). *)
From Coq Require Import List NArith ZArith Bool Arith Lia.
Import ListNotations.
Require Import Parser SBase SPrim SDir SScalar SFetch Pipe Resolver CoreSchema TokenGrammar Json FlowFold FlowScalarProofs PlainScalarProofs QuotedFoldProofs
               JsonScanBase JsonScanTok JsonScanStr JsonScanPlain JsonWords JsonScanRun JsonInd.
Open Scope N_scope.
Open Scope mon_scope.

(* the value at the top of the document *)
Definition top_done (len0 : nat) (v : jvalue) (k : nat) (s' : sc strin) : Prop :=
  exists w2' l' mk' adj' ska' lws' km' toks,
    s' = mkst w2' l' mk' toks adj' ska' [skey true 1 km'] 0 1 false lws' []
    /\ wsb w2' = true /\ map snd toks = json_tokens v /\ toks <> []
    /\ (1 <= k)%nat /\ (k + length w2' <= len0)%nat /\ (length toks <= 3 * k)%nat.

Lemma top_value v t : json_text v t -> (json_depth v <= 255)%nat ->
  forall F w0 w2, wsb w0 = true -> wsb w2 = true -> (2 * length (w0 ++ t ++ w2) + 10 <= F)%nat ->
  runs F (mkst (w0 ++ t ++ w2) 1 m0 [] 0 true [dummy_key] 0 1 false true []) (top_done (length (w0 ++ t ++ w2)) v).
Proof.
  intros Ht Hd F w0 w2 Hw0 Hw2 HF.
  pose proof (value_scan v t Ht F w0 w2 [] 1%nat m0 [] 0 true false 0 mk0 [] 0 1 true [] Hw0 Hw2) as R.
  rewrite !app_nil_r in R.
  eapply runs_mono; [apply R|].
  - right. repeat split; reflexivity.
  - lia.
  - exact HF.
  - intros k s' (w1' & l' & mk' & adj' & ska' & lws' & p' & tn' & km' & toks & -> & A & B & C & D & E & G & K).
    destruct (K eq_refl) as [-> ->]. rewrite !app_nil_r in *. cbn [app length N.of_nat] in *. rewrite N.add_0_r.
    exists w1', l', mk', adj', ska', lws', km', toks. repeat split; auto.
    intros ->. destruct v; discriminate.
Qed.

(* handing out the queued tokens *)
Lemma drain F ts : forall r cs l mk adj ska km tp ta lws acc fuel,
  (1 <= F)%nat -> Forall (fun t => snd t <> TStreamEnd) ts ->
  scan_all str_ops F (length ts + fuel) (mkst cs l mk (ts ++ r) adj ska [skey false 1 km] 0 tp ta lws []) acc
  = scan_all str_ops F fuel (mkst cs l mk r adj ska [skey false 1 km] 0 (tp + N.of_nat (length ts))
                               (match ts with [] => ta | _ => false end) lws []) (rev ts ++ acc).
Proof.
  intros r cs l mk adj ska km tp ta lws acc fuel HF Hts.
  apply (FlowSkeleton.drain F ts (mkst cs l mk (ts ++ r) adj ska [skey false 1 km] 0 tp ta lws []) r acc fuel HF Hts);
    [reflexivity | reflexivity | repeat constructor].
Qed.

(* no token of a JSON value is StreamEnd *)
Lemma json_tokens_no_se : forall v, forallb not_se (json_tokens v) = true.
Proof.
  induction v using jvalue_ind2; try reflexivity.
  - rewrite json_tokens_arr. cbn [forallb not_se andb]. rewrite forallb_app, forallb_fsep by reflexivity. cbn [forallb not_se]. rewrite andb_true_r.
    apply forallb_forall. intros ts Hts. apply in_map_iff in Hts as (x & <- & Hx). rewrite Forall_forall in H. exact (H x Hx).
  - rewrite json_tokens_obj. cbn [forallb not_se andb]. rewrite forallb_app, forallb_fsep by reflexivity. cbn [forallb not_se]. rewrite andb_true_r.
    apply forallb_forall. intros ts Hts. apply in_map_iff in Hts as (kv & <- & Hkv). rewrite Forall_forall in H. exact (H kv Hkv).
Qed.

(* THE SCANNER HALF: every JSON text, the tokens of its value *)
Theorem scan_json_doc v s : json_doc_text v s -> (json_depth v < 256)%nat ->
  forall F, (2 * length s + 10 <= F)%nat ->
  exists toks, scan_all str_ops F (4 * F + 20) (init_sc {| si_chars := s; si_look := 0 |}) [] = (toks, SEnded)
               /\ map snd toks = wrap (json_tokens v) /\ (length toks + 2 < 4 * F + 20)%nat.
Proof.
  intros (w0 & t & w2 & Hw0 & Ht & Hw2 & ->) Hd F HF.
  destruct (top_value v t Ht ltac:(lia) F w0 w2 Hw0 Hw2 HF) as
    (k & V & R & (w2' & l' & mk' & adj' & ska' & lws' & km' & toks & -> & A & C & Hne & D & E & G)).
  destruct (scan_doc_end F (w0 ++ t ++ w2) k toks w2' l' mk' adj' ska' km' lws') as (sp & Es).
  - exact (fsteps_fmt F k _ _ R).
  - intros q p tp.
    destruct (skip_ws_mk (length w2') w2' (le_n _) F [] (Nat.max l' 1) mk' q adj' ska' [skey p 1 km'] 0 tp false lws' [] ltac:(len) A)
      as (l1 & mk1 & lws1 & ska1 & E1 & _); [split; reflexivity|].
    rewrite app_nil_r in E1. exists l1, mk1, ska1, lws1. exact E1.
  - exact Hne.
  - eapply no_se_spanned; [exact C|apply json_tokens_no_se].
  - len.
  - exact G.
  - exists ((span_empty m0, TStreamStart) :: toks ++ [(sp, TStreamEnd)]). split; [exact Es|]. split.
    + unfold token in *. cbn [map snd]. rewrite map_app, C. reflexivity.
    + cbn [length]. rewrite app_length. cbn [length]. len.
Qed.
