(* The scanner over the buffered input against the scanner over the string input, in the calculus of ScanPair.v
   ([rwp] is [rwpG strict N0]): the family of directives, tags and anchors (Model/SDir.v).

     scan_directive_ok : rel_scan_directive cap strict N0
     scan_tag_ok       : rel_scan_tag cap strict N0
     scan_anchor_ok    : rel_scan_anchor cap strict N0               (after the section: [forall cap, 8 <= cap -> ...])

   Every loop of the family is in lockstep (same fuel on both sides, every iteration starts with a [look_ch] or a
   [look 3]), so every lemma has the form
       SR s1 s2 -> [buffered length needed at the entry ->]
       (forall r t1 t2, SR t1 t2 -> [k <= bl2 t2 ->] Q r t1 r t2) -> rwp (f sops ..) (f bops ..) Q s1 s2
   The values returned are built from the characters read, which are the STRING side's characters on both sides
   ([rwp_peek], [rwp_look_ch]), and from marks, which are equal under [SR] ([rwp_mark]); the error markers are the
   [start] mark read by the entry point, the same term on both sides.
   Where each "a character is buffered" fact comes from (the obligation of every [skip_non_blank]):
     - scan_directive / scan_anchor: the precondition [1 <= bl2 s2] (the dispatcher looked at the '%' / '&' / '*');
     - scan_verbatim_tag skips TWO characters: scan_tag's [look 2] before [nth_char_is 1 '<'];
     - everywhere else: the [look_ch] of the same iteration, or the exit of the preceding loop
       ([in_fetch_while_alpha], [in_skip_while_blank], [uri_loop], [scan_version_directive_number] all end on a
       [look_ch] whose character stays buffered);
     - scan_uri_escapes: [look 3] before the three peeks and [skip_n_non_blank 3]  (3 <= 8 <= cap). *)
From Coq Require Import List NArith ZArith Bool Arith Lia.
Import ListNotations.
Require Import Parser SBase SPrim SDir SScalar SFetch SBuf InputRefine ScanPair ScanPairPrim.
Local Open Scope nat_scope.
Arguments Nat.ltb : simpl never.
Arguments Nat.leb : simpl never.
Arguments Nat.eqb : simpl never.
Arguments Nat.sub : simpl never.

Section RelDir.
Variable cap : nat.
Hypothesis cap_ge : 8 <= cap.
Variable strict : bool.
Variable N0 : nat.
Local Notation rwp := (rwpG strict N0).
Notation sops := str_ops.
Notation bops := (buf_ops cap).

(* both sides branch on the same (syntactically equal) test *)
Ltac rdif :=
  cbv beta;
  match goal with |- rwp (if ?b then _ else _) (if ?b then _ else _) _ _ _ => destruct b end.
Ltac rfail := apply rwp_fail; reflexivity.

(* scan_uri_escapes: at most 5 rounds of [look 3], three peeks, [skip 3] *)
Lemma R_uri_escapes mk (Q : chr -> st1 -> chr -> st2 -> Prop) s1 s2 :
  SR s1 s2 -> (forall c t1 t2, SR t1 t2 -> Q c t1 c t2) ->
  rwp (scan_uri_escapes sops mk) (scan_uri_escapes bops mk) Q s1 s2.
Proof using cap_ge.
  intros HS HQ. cbv beta delta [scan_uri_escapes].
  match goal with |- rwp (?g1 5 0%N 0%N 0%N true) (?g2 5 0%N 0%N 0%N true) _ _ _ =>
    cut (forall n w ln cd fs u1 u2, SR u1 u2 -> rwp (g1 n w ln cd fs) (g2 n w ln cd fs) Q u1 u2);
    [intros H; apply H; exact HS|] end.
  clear s1 s2 HS. induction n as [|n IH]; intros w ln cd fs s1 s2 HS; [apply rwp_oof_l|].
  cbv beta iota zeta.
  apply rwp_bind. apply (rwp_look cap cap_ge); [exact HS|lia|]. intros u1 u2 HU _ _ BU _.
  apply rwp_bind. apply (rwp_peek cap cap_ge); [exact HU|lia|].
  apply rwp_bind. apply (rwp_peekn cap cap_ge); [exact HU|lia|].
  apply rwp_bind. apply (rwp_peekn cap cap_ge); [exact HU|lia|].
  rdif; [rfail|].
  apply rwp_bind.
  match goal with |- rwp _ _ ?QQ _ _ => assert (HC : forall r, QQ r u1 r u2) end.
  { intros [w' cd']. cbv beta iota zeta.
    apply rwp_bind. apply (rwp_skip_n_non_blank cap cap_ge); [exact HU|lia|]. intros v1 v2 HV _ _.
    rdif.
    - rdif; [apply rwp_ret; apply HQ; exact HV|rfail].
    - apply IH; exact HV. }
  destruct fs; repeat rdif; try rfail;
    match goal with |- rwp (ret ?x) (ret ?x) _ _ _ => apply rwp_ret; exact (HC x) end.
Qed.

(* tags *)
Lemma R_tag_handle F d mk (Q : list chr -> st1 -> list chr -> st2 -> Prop) s1 s2 :
  SR s1 s2 -> (forall r t1 t2, SR t1 t2 -> Q r t1 r t2) ->
  rwp (scan_tag_handle sops F d mk) (scan_tag_handle bops F d mk) Q s1 s2.
Proof using cap_ge.
  intros HS HQ. unfold scan_tag_handle.
  apply rwp_bind. apply (rwp_look_ch cap cap_ge); [exact HS|]. intros u1 u2 HU _ _ BU _.
  rdif; [rfail|].
  apply rwp_bind. apply (rwp_skip_non_blank cap cap_ge); [exact HU|exact BU|]. intros v1 v2 HV _ _.
  apply rwp_bind. apply (rwp_in_fetch_while_alpha cap cap_ge); [exact HV|]. intros r w1 w2 HW _ BW _ _ _.
  apply rwp_bind. apply rwp_adv_mark; [exact HW|]. intros x1 x2 HX _ BX.
  apply rwp_bind. apply (rwp_peek cap cap_ge); [exact HX|lia|].
  rdif.
  - apply rwp_bind. apply (rwp_skip_non_blank cap cap_ge); [exact HX|lia|]. intros y1 y2 HY _ _.
    apply rwp_ret. apply HQ; exact HY.
  - rdif; [rfail|apply rwp_ret; apply HQ; exact HX].
Qed.

(* the generic uri loop: at the exit the character that stopped it is buffered *)
Lemma R_uri_loop F p mk acc (Q : list chr * N -> st1 -> list chr * N -> st2 -> Prop) s1 s2 :
  SR s1 s2 -> (forall r t1 t2, SR t1 t2 -> 1 <= bl2 t2 -> Q r t1 r t2) ->
  rwp (uri_loop sops F p mk acc) (uri_loop bops F p mk acc) Q s1 s2.
Proof using cap_ge.
  intros HS HQ. unfold uri_loop.
  match goal with |- rwp (?g1 F acc 0%N) (?g2 F acc 0%N) _ _ _ =>
    cut (forall f a n u1 u2, SR u1 u2 -> rwp (g1 f a n) (g2 f a n) Q u1 u2); [intros H; apply H; exact HS|] end.
  clear s1 s2 HS. induction f as [|f IH]; intros a n s1 s2 HS; [apply rwp_oof_l|].
  cbv beta iota zeta.
  apply rwp_bind. apply (rwp_look_ch cap cap_ge); [exact HS|]. intros u1 u2 HU _ _ BU _.
  rdif; [|apply rwp_ret; apply HQ; assumption].
  rdif.
  - apply rwp_bind. apply R_uri_escapes; [exact HU|]. intros e v1 v2 HV. apply IH; exact HV.
  - apply rwp_bind. apply (rwp_skip_non_blank cap cap_ge); [exact HU|exact BU|]. intros v1 v2 HV _ _.
    apply IH; exact HV.
Qed.

Lemma R_tag_prefix F mk (Q : list chr -> st1 -> list chr -> st2 -> Prop) s1 s2 :
  SR s1 s2 -> (forall r t1 t2, SR t1 t2 -> 1 <= bl2 t2 -> Q r t1 r t2) ->
  rwp (scan_tag_prefix sops F mk) (scan_tag_prefix bops F mk) Q s1 s2.
Proof using cap_ge.
  intros HS HQ. unfold scan_tag_prefix.
  apply rwp_bind. apply (rwp_look_ch cap cap_ge); [exact HS|]. intros u1 u2 HU _ _ BU _.
  apply rwp_bind.
  match goal with |- rwp _ _ ?QQ _ _ => assert (HC : forall acc t1 t2, SR t1 t2 -> QQ acc t1 acc t2) end.
  { intros acc t1 t2 HT. cbv beta.
    apply rwp_bind. apply R_uri_loop; [exact HT|]. intros r v1 v2 HV BV. apply rwp_ret. apply HQ; assumption. }
  rdif.
  - apply rwp_bind. apply (rwp_skip_non_blank cap cap_ge); [exact HU|exact BU|]. intros v1 v2 HV _ _.
    apply rwp_ret. apply HC; exact HV.
  - rdif; [rfail|]. rdif.
    + apply rwp_bind. apply R_uri_escapes; [exact HU|]. intros e v1 v2 HV. apply rwp_ret. apply HC; exact HV.
    + apply rwp_bind. apply (rwp_skip_non_blank cap cap_ge); [exact HU|exact BU|]. intros v1 v2 HV _ _.
      apply rwp_ret. apply HC; exact HV.
Qed.

(* scan_verbatim_tag skips "!<" at once: TWO characters must be buffered *)
Lemma R_verbatim_tag F mk (Q : list chr -> st1 -> list chr -> st2 -> Prop) s1 s2 :
  SR s1 s2 -> 2 <= bl2 s2 -> (forall r t1 t2, SR t1 t2 -> Q r t1 r t2) ->
  rwp (scan_verbatim_tag sops F mk) (scan_verbatim_tag bops F mk) Q s1 s2.
Proof using cap_ge.
  intros HS HB HQ. unfold scan_verbatim_tag.
  apply rwp_bind. apply (rwp_skip_non_blank cap cap_ge); [exact HS|lia|]. intros u1 u2 HU _ BU.
  apply rwp_bind. apply (rwp_skip_non_blank cap cap_ge); [exact HU|lia|]. intros v1 v2 HV _ _.
  apply rwp_bind. apply R_uri_loop; [exact HV|]. intros r w1 w2 HW BW.
  apply rwp_bind. apply (rwp_peek cap cap_ge); [exact HW|exact BW|].
  rdif; [rfail|].
  apply rwp_bind. apply (rwp_skip_non_blank cap cap_ge); [exact HW|exact BW|]. intros x1 x2 HX _ _.
  apply rwp_ret. apply HQ; exact HX.
Qed.

Lemma R_tag_shorthand_suffix F head mk (Q : list chr -> st1 -> list chr -> st2 -> Prop) s1 s2 :
  SR s1 s2 -> (forall r t1 t2, SR t1 t2 -> 1 <= bl2 t2 -> Q r t1 r t2) ->
  rwp (scan_tag_shorthand_suffix sops F head mk) (scan_tag_shorthand_suffix bops F head mk) Q s1 s2.
Proof using cap_ge.
  intros HS HQ. unfold scan_tag_shorthand_suffix. cbv beta zeta.
  apply rwp_bind. apply R_uri_loop; [exact HS|]. intros r u1 u2 HU BU.
  rdif; [rfail|apply rwp_ret; apply HQ; assumption].
Qed.

Theorem scan_tag_ok : rel_scan_tag cap strict N0.
Proof using cap_ge.
  unfold rel_scan_tag. intros F s1 s2 HS. unfold scan_tag.
  apply rwp_bind. apply rwp_mark; [exact HS|].
  apply rwp_bind. apply (rwp_look cap cap_ge); [exact HS|lia|]. intros u1 u2 HU _ _ BU _.
  apply rwp_bind. apply (rwp_nth_char_is cap cap_ge); [exact HU|lia|].
  apply rwp_bind.
  match goal with |- rwp _ _ ?QQ _ _ => assert (HC : forall hs t1 t2, SR t1 t2 -> QQ hs t1 hs t2) end.
  { intros hs t1 t2 HT. cbv beta.
    apply rwp_bind. apply (rwp_look_ch cap cap_ge); [exact HT|]. intros v1 v2 HV _ _ BV _.
    apply rwp_bind. apply rwp_flow_level; [exact HV|].
    rdif; [|rfail].
    apply rwp_bind. apply rwp_mark; [exact HV|]. apply rwp_ret_rpost; [exact HV|lia]. }
  rdif.
  - apply rwp_bind. apply R_verbatim_tag; [exact HU|exact BU|]. intros sfx t1 t2 HT.
    apply rwp_ret. apply HC; exact HT.
  - apply rwp_bind. apply R_tag_handle; [exact HU|]. intros h t1 t2 HT.
    rdif.
    + apply rwp_bind. apply R_tag_shorthand_suffix; [exact HT|]. intros sfx v1 v2 HV _.
      apply rwp_ret. apply HC; exact HV.
    + apply rwp_bind. apply R_tag_shorthand_suffix; [exact HT|]. intros sfx v1 v2 HV _.
      destruct sfx; apply rwp_ret; apply HC; exact HV.
Qed.

(* anchors and aliases *)
Theorem scan_anchor_ok : rel_scan_anchor cap strict N0.
Proof using cap_ge.
  unfold rel_scan_anchor. intros F alias s1 s2 HS HB. unfold scan_anchor.
  apply rwp_bind. apply rwp_mark; [exact HS|].
  apply rwp_bind. apply (rwp_skip_non_blank cap cap_ge); [exact HS|exact HB|]. intros u1 u2 HU _ _.
  apply rwp_bind.
  match goal with |- rwp (?g1 F []) (?g2 F []) ?QQ _ _ =>
    set (Q' := QQ);
    assert (HC : forall r t1 t2, SR t1 t2 -> Q' r t1 r t2);
    [|cut (forall f acc t1 t2, SR t1 t2 -> rwp (g1 f acc) (g2 f acc) Q' t1 t2); [intros H; apply H; exact HU|]] end.
  { intros r t1 t2 HT. unfold Q'. destruct r; [rfail|].
    apply rwp_bind. apply rwp_mark; [exact HT|]. apply rwp_ret_rpost; [exact HT|lia]. }
  induction f as [|f IH]; intros acc t1 t2 HT; [apply rwp_oof_l|].
  cbv beta iota zeta.
  apply rwp_bind. apply (rwp_look_ch cap cap_ge); [exact HT|]. intros v1 v2 HV _ _ BV _.
  rdif.
  - apply rwp_bind. apply (rwp_skip_non_blank cap cap_ge); [exact HV|exact BV|]. intros w1 w2 HW _ _.
    apply IH; exact HW.
  - apply rwp_ret. apply HC; exact HV.
Qed.

(* directives *)
(* the modelled u32-overflow panic (site 120) would be the same panic on both sides: no invariant needed here *)
Lemma R_version_number F mk (Q : N -> st1 -> N -> st2 -> Prop) s1 s2 :
  SR s1 s2 -> (forall r t1 t2, SR t1 t2 -> 1 <= bl2 t2 -> Q r t1 r t2) ->
  rwp (scan_version_directive_number sops F mk) (scan_version_directive_number bops F mk) Q s1 s2.
Proof using cap_ge.
  intros HS HQ. unfold scan_version_directive_number.
  match goal with |- rwp (?g1 F 0%N 0%N) (?g2 F 0%N 0%N) _ _ _ =>
    cut (forall f val len u1 u2, SR u1 u2 -> rwp (g1 f val len) (g2 f val len) Q u1 u2);
    [intros H; apply H; exact HS|] end.
  clear s1 s2 HS. induction f as [|f IH]; intros val len s1 s2 HS; [apply rwp_oof_l|].
  cbv beta iota zeta.
  apply rwp_bind. apply (rwp_look_ch cap cap_ge); [exact HS|]. intros u1 u2 HU _ _ BU _.
  rdif.
  - rdif; [rfail|].
    apply rwp_bind. rdif; [apply rwp_panic_r|].
    apply rwp_ret. apply rwp_bind. apply (rwp_skip_non_blank cap cap_ge); [exact HU|exact BU|]. intros v1 v2 HV _ _.
    apply IH; exact HV.
  - rdif; [rfail|apply rwp_ret; apply HQ; assumption].
Qed.

Lemma R_version_value F mk (Q : token -> st1 -> token -> st2 -> Prop) s1 s2 :
  SR s1 s2 -> (forall r t1 t2, SR t1 t2 -> 1 <= bl2 t2 -> Q r t1 r t2) ->
  rwp (scan_version_directive_value sops F mk) (scan_version_directive_value bops F mk) Q s1 s2.
Proof using cap_ge.
  intros HS HQ. unfold scan_version_directive_value.
  apply rwp_bind. apply (rwp_in_skip_while_blank cap cap_ge); [exact HS|]. intros n u1 u2 HU _ BU _ _ _.
  apply rwp_bind. apply rwp_adv_mark; [exact HU|]. intros v1 v2 HV _ BV.
  apply rwp_bind. apply R_version_number; [exact HV|]. intros major w1 w2 HW BW.
  apply rwp_bind. apply (rwp_peek cap cap_ge); [exact HW|exact BW|].
  rdif; [rfail|].
  apply rwp_bind. apply (rwp_skip_non_blank cap cap_ge); [exact HW|exact BW|]. intros x1 x2 HX _ _.
  apply rwp_bind. apply R_version_number; [exact HX|]. intros minor y1 y2 HY BY.
  apply rwp_bind. apply rwp_mark; [exact HY|]. apply rwp_ret. apply HQ; assumption.
Qed.

Lemma R_tag_directive_value F mk (Q : token -> st1 -> token -> st2 -> Prop) s1 s2 :
  SR s1 s2 -> (forall r t1 t2, SR t1 t2 -> 1 <= bl2 t2 -> Q r t1 r t2) ->
  rwp (scan_tag_directive_value sops F mk) (scan_tag_directive_value bops F mk) Q s1 s2.
Proof using cap_ge.
  intros HS HQ. unfold scan_tag_directive_value.
  apply rwp_bind. apply (rwp_in_skip_while_blank cap cap_ge); [exact HS|]. intros n u1 u2 HU _ BU _ _ _.
  apply rwp_bind. apply rwp_adv_mark; [exact HU|]. intros v1 v2 HV _ BV.
  apply rwp_bind. apply R_tag_handle; [exact HV|]. intros h w1 w2 HW.
  apply rwp_bind. apply (rwp_in_skip_while_blank cap cap_ge); [exact HW|]. intros n' x1 x2 HX _ BX _ _ _.
  apply rwp_bind. apply rwp_adv_mark; [exact HX|]. intros y1 y2 HY _ BY.
  apply rwp_bind. apply R_tag_prefix; [exact HY|]. intros p z1 z2 HZ BZ.
  apply rwp_bind. apply (rwp_look cap cap_ge); [exact HZ|lia|]. intros a1 a2 HA _ _ BA _.
  apply rwp_bind. apply (rwp_peek cap cap_ge); [exact HA|exact BA|].
  rdif; [|rfail].
  apply rwp_bind. apply rwp_mark; [exact HA|]. apply rwp_ret. apply HQ; assumption.
Qed.

Lemma R_directive_name F (Q : list chr -> st1 -> list chr -> st2 -> Prop) s1 s2 :
  SR s1 s2 -> (forall r t1 t2, SR t1 t2 -> 1 <= bl2 t2 -> Q r t1 r t2) ->
  rwp (scan_directive_name sops F) (scan_directive_name bops F) Q s1 s2.
Proof using cap_ge.
  intros HS HQ. unfold scan_directive_name.
  apply rwp_bind. apply rwp_mark; [exact HS|].
  apply rwp_bind. apply (rwp_in_fetch_while_alpha cap cap_ge); [exact HS|]. intros r u1 u2 HU _ BU _ _ _.
  apply rwp_bind. apply rwp_adv_mark; [exact HU|]. intros v1 v2 HV _ BV.
  destruct (fst r) as [|x l]; [rfail|].
  apply rwp_bind. apply (rwp_peek cap cap_ge); [exact HV|lia|].
  rdif; [apply rwp_ret; apply HQ; [assumption|lia]|rfail].
Qed.

Theorem scan_directive_ok : rel_scan_directive cap strict N0.
Proof using cap_ge.
  unfold rel_scan_directive. intros F s1 s2 HS HB. unfold scan_directive.
  apply rwp_bind. apply rwp_mark; [exact HS|].
  apply rwp_bind. apply (rwp_skip_non_blank cap cap_ge); [exact HS|exact HB|]. intros u1 u2 HU _ _.
  apply rwp_bind. apply R_directive_name; [exact HU|]. intros name v1 v2 HV BV.
  apply rwp_bind.
  match goal with |- rwp _ _ ?QQ _ _ => assert (HC : forall tk t1 t2, SR t1 t2 -> QQ tk t1 tk t2) end.
  { intros tk t1 t2 HT. cbv beta.
    eapply rwp_bind_rpost; [apply (skip_ws_to_eol_ok cap cap_ge); exact HT|]. intros tw w1 w2 HW BW.
    apply rwp_bind. apply (rwp_next_is cap cap_ge); [exact HW|exact BW|].
    rdif; [|rfail].
    apply rwp_bind. apply (rwp_look cap cap_ge); [exact HW|lia|]. intros x1 x2 HX _ _ BX _.
    eapply rwp_bind_rpost; [apply (skip_linebreak_ok cap cap_ge); [exact HX|exact BX]|]. intros [] y1 y2 HY _.
    apply rwp_ret_rpost; [exact HY|lia]. }
  rdif.
  - apply R_version_value; [exact HV|]. intros tk t1 t2 HT _. apply HC; exact HT.
  - rdif.
    + apply R_tag_directive_value; [exact HV|]. intros tk t1 t2 HT _. apply HC; exact HT.
    + apply rwp_bind. apply (rwp_in_skip_while_non_breakz cap cap_ge); [exact HV|]. intros n t1 t2 HT _ _ _ _ _.
      apply rwp_bind. apply rwp_adv_mark; [exact HT|]. intros w1 w2 HW _ _.
      apply rwp_bind. apply rwp_mark; [exact HW|]. apply rwp_ret. apply HC; exact HW.
Qed.

End RelDir.

Print Assumptions scan_directive_ok.
Print Assumptions scan_tag_ok.
Print Assumptions scan_anchor_ok.
Check scan_directive_ok.
Check scan_tag_ok.
Check scan_anchor_ok.
