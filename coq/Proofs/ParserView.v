(* Parser.v through the tests the Rust parser makes.

   A state function of parser.rs looks at a token only to ask whether it is one of the few kinds its `match` names;
   every other kind goes to the default arm.  Written as a Gallina `match` over the 21 constructors of [tok] that
   default arm is copied 17-20 times, and a proof that follows a function through two or three nested matches meets
   the copies multiplied.  Here each such function is given an equal form that asks [tin l k] ("the kind of k is
   one of l") and branches in two, so that a walk over it has as many leaves as the Rust function has arms.
   Payloads are read with [as_alias], [as_anchor], [as_tag], [as_scalar]. *)
From Coq Require Import List NArith Bool.
Import ListNotations.
Require Import Parser.

Definition tis (c k : tok) : bool :=
  match c, k with
  | TStreamStart, TStreamStart | TStreamEnd, TStreamEnd
  | TVersionDirective _ _, TVersionDirective _ _ | TTagDirective _ _, TTagDirective _ _
  | TDocumentStart, TDocumentStart | TDocumentEnd, TDocumentEnd
  | TBlockSequenceStart, TBlockSequenceStart | TBlockMappingStart, TBlockMappingStart | TBlockEnd, TBlockEnd
  | TFlowSequenceStart, TFlowSequenceStart | TFlowSequenceEnd, TFlowSequenceEnd
  | TFlowMappingStart, TFlowMappingStart | TFlowMappingEnd, TFlowMappingEnd
  | TBlockEntry, TBlockEntry | TFlowEntry, TFlowEntry | TKey, TKey | TValue, TValue
  | TAlias _, TAlias _ | TAnchor _, TAnchor _ | TTag _ _, TTag _ _ | TScalar _ _, TScalar _ _ => true
  | _, _ => false
  end.

Arguments tis !c !k /.

Definition tin (l : list tok) (k : tok) : bool := existsb (fun c => tis c k) l.

Definition as_alias (k : tok) : option str := match k with TAlias n => Some n | _ => None end.
Definition as_anchor (k : tok) : option str := match k with TAnchor n => Some n | _ => None end.
Definition as_tag (k : tok) : option (str * str) := match k with TTag h s => Some (h, s) | _ => None end.
Definition as_scalar (k : tok) : option (style * str) := match k with TScalar st v => Some (st, v) | _ => None end.

(* the directives, whose payload the document states never read *)
Definition directive_kinds : list tok := [TVersionDirective 0 0; TTagDirective [] []].

(* a kind without payload is its only member *)
Definition bare (c : tok) : bool :=
  match c with
  | TVersionDirective _ _ | TTagDirective _ _ | TAlias _ | TAnchor _ | TTag _ _ | TScalar _ _ => false
  | _ => true
  end.

Lemma tis_bare c k : bare c = true -> tis c k = true -> k = c.
Proof. destruct c, k; cbn; intros; first [reflexivity | discriminate]. Qed.

Lemma tis_refl k : tis k k = true.
Proof. destruct k; reflexivity. Qed.

Lemma tin_false l k c : tin l k = false -> In c l -> tis c k = false.
Proof.
  unfold tin. intros H HI. destruct (tis c k) eqn:E; [|reflexivity].
  rewrite <- H. symmetry. apply existsb_exists. exists c. split; assumption.
Qed.

(* a payload read back *)

Lemma as_alias_inv k n : as_alias k = Some n -> k = TAlias n.
Proof. destruct k; intros H; inversion H. reflexivity. Qed.

Lemma as_anchor_inv k n : as_anchor k = Some n -> k = TAnchor n.
Proof. destruct k; intros H; inversion H. reflexivity. Qed.

Lemma as_tag_inv k h s : as_tag k = Some (h, s) -> k = TTag h s.
Proof. destruct k; intros H; inversion H. reflexivity. Qed.

Lemma as_scalar_inv k st v : as_scalar k = Some (st, v) -> k = TScalar st v.
Proof. destruct k; intros H; inversion H. reflexivity. Qed.

(* the one-token cache *)

Lemma peek_cached p t : p_token p = Some t -> peek p = Ok (t, p).
Proof. unfold peek. intros ->. reflexivity. Qed.

Lemma peek_fills p t q : peek p = Ok (t, q) -> p_token q = Some t.
Proof.
  unfold peek. destruct (p_token p) eqn:E.
  - intros H. inversion H. subst. exact E.
  - destruct (p_toks p); intros H; inversion H. reflexivity.
Qed.


(* [peek] touches nothing but the cache and the tokens behind it *)
Lemma peek_set_tok p t q : peek p = Ok (t, q) -> exists l c, q = set_tok p l c.
Proof.
  destruct p as [toks tk sts st an aid tg kp]. unfold peek. cbn [p_token p_toks].
  destruct tk as [t0|]; [|destruct toks as [|t0 toks]; [discriminate|]];
    intros H; inversion H; subst; eexists _, _; reflexivity.
Qed.

(* the state functions *)

Lemma node_props_if p t :
  node_props p t =
  match as_anchor (snd t) with
  | Some name =>
      let p := skip p in
      let '(id, p) := register_anchor p name in
      do (t2, p) <- peek p;
      match as_tag (snd t2) with
      | Some (h, s) => let p := skip p in do tg <- resolve_tag p (sp_start (fst t)) h s; Ok (id, Some tg, p)
      | None => Ok (id, None, p)
      end
  | None =>
    match as_tag (snd t) with
    | Some (h, s) =>
        let p := skip p in
        do tg <- resolve_tag p (sp_start (fst t)) h s;
        do (t2, p) <- peek p;
        match as_anchor (snd t2) with
        | Some name => let p := skip p in let '(id, p) := register_anchor p name in Ok (id, Some tg, p)
        | None => Ok (0%N, Some tg, p)
        end
    | None => Ok (0%N, None, p)
    end
  end.
Proof.
  destruct t as [sp k]. unfold node_props. destruct k; cbn [snd fst as_anchor as_tag]; try reflexivity.
  - destruct (register_anchor (skip p) n) as [id q]. destruct (peek q) as [[[sp2 k2] q2]| |]; [|reflexivity..].
    destruct k2; reflexivity.
  - destruct (resolve_tag (skip p) (sp_start sp) h s); [|reflexivity..].
    destruct (peek (skip p)) as [[[sp2 k2] q2]| |]; [|reflexivity..]. destruct k2; reflexivity.
Qed.

Lemma node_content_if p aid tg block indentless :
  node_content p aid tg block indentless =
  do (t, p) <- peek p;
  let (sp, k) := t in
  match as_scalar k with
  | Some (st, v) => do p <- pop_state p; Ok ((EScalar v st aid tg, sp), skip p)
  | None =>
    if tis TBlockEntry k then
      if indentless then Ok ((ESequenceStart aid tg, sp), set_state p SIndentlessSequenceEntry)
      else empty_or_err p aid tg sp
    else if tis TFlowSequenceStart k then Ok ((ESequenceStart aid tg, sp), set_state p SFlowSequenceFirstEntry)
    else if tis TFlowMappingStart k then Ok ((EMappingStart aid tg, sp), set_state p SFlowMappingFirstKey)
    else if tis TBlockSequenceStart k && block then Ok ((ESequenceStart aid tg, sp), set_state p SBlockSequenceFirstEntry)
    else if tis TBlockMappingStart k && block then Ok ((EMappingStart aid tg, sp), set_state p SBlockMappingFirstKey)
    else empty_or_err p aid tg sp
  end.
Proof.
  unfold node_content. destruct (peek p) as [[[sp k] q]| |]; [|reflexivity..].
  destruct k, block; reflexivity.
Qed.

Lemma parse_node_if p block indentless :
  parse_node p block indentless =
  do (t, p) <- peek p;
  match as_alias (snd t) with
  | Some name =>
      do p <- pop_state p;
      let p := skip p in
      match assoc name (p_anchors p) with
      | None => Err (PErr 10 (sp_start (fst t)))
      | Some id => Ok ((EAlias id, fst t), p)
      end
  | None =>
      do (aid, tg, p) <- node_props p t;
      node_content p aid tg block indentless
  end.
Proof.
  unfold parse_node. destruct (peek p) as [[[sp k] q]| |]; [|reflexivity..]. destruct k; reflexivity.
Qed.

Lemma stream_start_if p :
  stream_start p =
  do (t, p) <- peek p;
  if tis TStreamStart (snd t) then Ok ((EStreamStart, fst t), skip (set_state p SImplicitDocumentStart))
  else Err (PErr 1 (sp_start (fst t))).
Proof.
  unfold stream_start. destruct (peek p) as [[[sp k] q]| |]; [|reflexivity..]. destruct k; reflexivity.
Qed.

Lemma explicit_document_start_if p :
  explicit_document_start p =
  do p <- process_directives (S (S (length (p_toks p)))) p false [];
  do (t, p) <- peek p;
  if tis TDocumentStart (snd t)
  then Ok ((EDocumentStart true, fst t), skip (set_state (push_state p SDocumentEnd) SDocumentContent))
  else Err (PErr 3 (sp_start (fst t))).
Proof.
  unfold explicit_document_start. destruct (process_directives _ p false []) as [q| |]; [|reflexivity..].
  destruct (peek q) as [[[sp k] q2]| |]; [|reflexivity..]. destruct k; reflexivity.
Qed.

Lemma skip_document_ends_if fuel p :
  skip_document_ends (S fuel) p =
  do (t, p) <- peek p;
  if tis TDocumentEnd (snd t) then skip_document_ends fuel (skip p) else Ok p.
Proof.
  cbn [skip_document_ends]. destruct (peek p) as [[[sp k] q]| |]; [|reflexivity..]. destruct k; reflexivity.
Qed.

Lemma document_start_if p implicit :
  document_start p implicit =
  do p <- skip_document_ends (S (S (length (p_toks p)))) p;
  do (t, p) <- peek p;
  let (sp, k) := t in
  if tis TStreamEnd k then Ok ((EStreamEnd, sp), skip (set_state p SEnd))
  else if negb implicit || tin (TDocumentStart :: directive_kinds) k then explicit_document_start p
  else
    do p <- process_directives (S (S (length (p_toks p)))) p false [];
    Ok ((EDocumentStart false, sp), set_state (push_state p SDocumentEnd) SBlockNode).
Proof.
  unfold document_start. destruct (skip_document_ends _ p) as [q| |]; [|reflexivity..].
  destruct (peek q) as [[[sp k] q2]| |]; [|reflexivity..]. destruct k, implicit; reflexivity.
Qed.

Lemma document_content_if p :
  document_content p =
  do (t, p) <- peek p;
  if tin ([TDocumentStart; TDocumentEnd; TStreamEnd] ++ directive_kinds) (snd t)
  then do p <- pop_state p; Ok ((empty_scalar, fst t), p)
  else parse_node p true false.
Proof.
  unfold document_content. destruct (peek p) as [[[sp k] q]| |]; [|reflexivity..]. destruct k; reflexivity.
Qed.

Lemma document_end_if p :
  document_end p =
  do (t, p) <- peek p;
  let (sp, k) := t in
  let explicit_end := tis TDocumentEnd k in
  let p := if explicit_end then skip p else p in
  let p := if p_keep_tags p then p else set_tags p [] in
  let p := set_anchors p [] (p_anchor_id p) in
  if explicit_end then Ok ((EDocumentEnd, sp), set_state p SImplicitDocumentStart)
  else
    do (t, p) <- peek p;
    if tin directive_kinds (snd t) then Err (PErr 4 (sp_start (fst t)))
    else Ok ((EDocumentEnd, sp), set_state p SDocumentStart).
Proof.
  unfold document_end. destruct (peek p) as [[[sp k] q]| |]; [|reflexivity..].
  destruct k; cbn [tis]; try reflexivity.
  all: match goal with |- context [peek ?x] => destruct (peek x) as [[[sp2 k2] q2]| |]; [|reflexivity..] end;
    destruct k2; reflexivity.
Qed.

(* the token behind a key, value or entry indicator: nothing, or a node *)
Definition node_or_empty (l : list tok) (p : parser) (st : pstate) (block indentless : bool) :=
  do (t, p) <- peek p;
  if tin l (snd t) then Ok ((empty_scalar, fst t), set_state p st)
  else parse_node (push_state p st) block indentless.

Lemma block_mapping_key_if p first :
  block_mapping_key p first =
  do p <- (if first then do (_, p) <- peek p; Ok (skip p) else Ok p);
  do (t, p) <- peek p;
  let (sp, k) := t in
  if tis TKey k then node_or_empty [TKey; TValue; TBlockEnd] (skip p) SBlockMappingValue true true
  else if tis TValue k then Ok ((empty_scalar, sp), set_state p SBlockMappingValue)
  else if tis TBlockEnd k then do p <- pop_state p; Ok ((EMappingEnd, sp), skip p)
  else Err (PErr 5 (sp_start sp)).
Proof.
  unfold block_mapping_key, node_or_empty.
  destruct (if first then _ else _) as [q| |]; [|reflexivity..].
  destruct (peek q) as [[[sp k] q2]| |]; [|reflexivity..]. destruct k; cbn [tis]; try reflexivity.
  destruct (peek (skip q2)) as [[[sp2 k2] q3]| |]; [|reflexivity..]. destruct k2; reflexivity.
Qed.

Lemma block_mapping_value_if p :
  block_mapping_value p =
  do (t, p) <- peek p;
  if tis TValue (snd t) then node_or_empty [TKey; TValue; TBlockEnd] (skip p) SBlockMappingKey true true
  else Ok ((empty_scalar, fst t), set_state p SBlockMappingKey).
Proof.
  unfold block_mapping_value, node_or_empty. destruct (peek p) as [[[sp k] q]| |]; [|reflexivity..].
  destruct k; cbn [tis snd fst]; try reflexivity.
  destruct (peek (skip q)) as [[[sp2 k2] q3]| |]; [|reflexivity..]. destruct k2; reflexivity.
Qed.

Lemma flow_mapping_key_if p first :
  flow_mapping_key p first =
  do p <- (if first then do (_, p) <- peek p; Ok (skip p) else Ok p);
  do (t, p) <- peek p;
  let (sp, k) := t in
  if tis TFlowMappingEnd k then do p <- pop_state p; Ok ((EMappingEnd, sp), skip p)
  else
    do p <- (if first then Ok p else
               do (t, p) <- peek p;
               if tis TFlowEntry (snd t) then Ok (skip p) else Err (PErr 6 (sp_start (fst t))));
    do (t, p) <- peek p;
    let (sp2, k) := t in
    if tis TKey k then
      node_or_empty [TValue; TFlowEntry; TFlowMappingEnd] (skip p) SFlowMappingValue false false
    else if tis TValue k then Ok ((empty_scalar, sp2), set_state p SFlowMappingValue)
    else if tis TFlowMappingEnd k then do p <- pop_state p; Ok ((EMappingEnd, sp), skip p)
    else parse_node (push_state p SFlowMappingEmptyValue) false false.
Proof.
  unfold flow_mapping_key, node_or_empty.
  destruct (if first then _ else _) as [q| |]; [|reflexivity..].
  destruct (peek q) as [[[sp k] q2]| |]; [|reflexivity..].
  assert (D : forall r : res parser,
    (do p <- r; do (t, p) <- peek p;
     match t with
     | (_, TKey) =>
         let p := skip p in
         do (t, p) <- peek p;
         match t with
         | (sp2, TValue) | (sp2, TFlowEntry) | (sp2, TFlowMappingEnd) => Ok ((empty_scalar, sp2), set_state p SFlowMappingValue)
         | _ => parse_node (push_state p SFlowMappingValue) false false
         end
     | (sp2, TValue) => Ok ((empty_scalar, sp2), set_state p SFlowMappingValue)
     | (_, TFlowMappingEnd) => do p <- pop_state p; Ok ((EMappingEnd, sp), skip p)
     | _ => parse_node (push_state p SFlowMappingEmptyValue) false false
     end) =
    (do p <- r; do (t, p) <- peek p;
     let (sp2, k) := t in
     if tis TKey k then
       do (t, p) <- peek (skip p);
       if tin [TValue; TFlowEntry; TFlowMappingEnd] (snd t) then Ok ((empty_scalar, fst t), set_state p SFlowMappingValue)
       else parse_node (push_state p SFlowMappingValue) false false
     else if tis TValue k then Ok ((empty_scalar, sp2), set_state p SFlowMappingValue)
     else if tis TFlowMappingEnd k then do p <- pop_state p; Ok ((EMappingEnd, sp), skip p)
     else parse_node (push_state p SFlowMappingEmptyValue) false false)).
  { intros [r| |]; [|reflexivity..]. destruct (peek r) as [[[sp2 k2] q3]| |]; [|reflexivity..].
    destruct k2; cbn [tis]; try reflexivity.
    destruct (peek (skip q3)) as [[[sp3 k3] q4]| |]; [|reflexivity..]. destruct k3; reflexivity. }
  assert (E : forall q2, (if first then Ok q2 else
               do (t, p) <- peek q2;
               match t with (_, TFlowEntry) => Ok (skip p) | (sp2, _) => Err (PErr 6 (sp_start sp2)) end) =
            (if first then Ok q2 else
               do (t, p) <- peek q2;
               if tis TFlowEntry (snd t) then Ok (skip p) else Err (PErr 6 (sp_start (fst t))))).
  { intros q0. destruct first; [reflexivity|]. destruct (peek q0) as [[[sp2 k2] q3]| |]; [|reflexivity..].
    destruct k2; reflexivity. }
  destruct k; cbn [tis]; try reflexivity; rewrite E; apply D.
Qed.

Lemma flow_mapping_value_if p empty :
  flow_mapping_value p empty =
  if empty then do (t, p) <- peek p; Ok ((empty_scalar, fst t), set_state p SFlowMappingKey)
  else
    do (t, p) <- peek p;
    if tis TValue (snd t) then
      do (t2, p) <- peek (skip p);
      if tin [TFlowEntry; TFlowMappingEnd] (snd t2) then Ok ((empty_scalar, fst t), set_state p SFlowMappingKey)
      else parse_node (push_state p SFlowMappingKey) false false
    else Ok ((empty_scalar, fst t), set_state p SFlowMappingKey).
Proof.
  unfold flow_mapping_value. destruct empty; [reflexivity|].
  destruct (peek p) as [[[sp k] q]| |]; [|reflexivity..]. destruct k; cbn [tis snd fst]; try reflexivity.
  destruct (peek (skip q)) as [[[sp2 k2] q3]| |]; [|reflexivity..]. destruct k2; reflexivity.
Qed.

Lemma flow_sequence_entry_if p first :
  flow_sequence_entry p first =
  do p <- (if first then do (_, p) <- peek p; Ok (skip p) else Ok p);
  do (t, p) <- peek p;
  let (sp, k) := t in
  if tis TFlowSequenceEnd k then do p <- pop_state p; Ok ((ESequenceEnd, sp), skip p)
  else
    do p <- (if first then Ok p
             else if tis TFlowEntry k then Ok (skip p) else Err (PErr 7 (sp_start sp)));
    do (t, p) <- peek p;
    let (sp, k) := t in
    if tis TFlowSequenceEnd k then do p <- pop_state p; Ok ((ESequenceEnd, sp), skip p)
    else if tis TKey k then Ok ((EMappingStart 0 None, sp), skip (set_state p SFlowSequenceEntryMappingKey))
    else parse_node (push_state p SFlowSequenceEntry) false false.
Proof.
  unfold flow_sequence_entry.
  destruct (if first then _ else _) as [q| |]; [|reflexivity..].
  destruct (peek q) as [[[sp k] q2]| |]; [|reflexivity..].
  assert (D : forall r : res parser,
    (do p <- r; do (t, p) <- peek p;
     match t with
     | (sp, TFlowSequenceEnd) => do p <- pop_state p; Ok ((ESequenceEnd, sp), skip p)
     | (sp, TKey) => Ok ((EMappingStart 0 None, sp), skip (set_state p SFlowSequenceEntryMappingKey))
     | _ => parse_node (push_state p SFlowSequenceEntry) false false
     end) =
    (do p <- r; do (t, p) <- peek p;
     let (sp, k) := t in
     if tis TFlowSequenceEnd k then do p <- pop_state p; Ok ((ESequenceEnd, sp), skip p)
     else if tis TKey k then Ok ((EMappingStart 0 None, sp), skip (set_state p SFlowSequenceEntryMappingKey))
     else parse_node (push_state p SFlowSequenceEntry) false false)).
  { intros [r| |]; [|reflexivity..]. destruct (peek r) as [[[sp2 k2] q3]| |]; [|reflexivity..].
    destruct k2; reflexivity. }
  destruct k, first; try reflexivity; first [exact (D (Ok q2)) | exact (D (Ok (skip q2)))].
Qed.

Lemma indentless_sequence_entry_if p :
  indentless_sequence_entry p =
  do (t, p) <- peek p;
  if tis TBlockEntry (snd t) then
    node_or_empty [TBlockEntry; TKey; TValue; TBlockEnd] (skip p) SIndentlessSequenceEntry true false
  else do p <- pop_state p; Ok ((ESequenceEnd, fst t), p).
Proof.
  unfold indentless_sequence_entry, node_or_empty. destruct (peek p) as [[[sp k] q]| |]; [|reflexivity..].
  destruct k; cbn [tis snd fst]; try reflexivity.
  destruct (peek (skip q)) as [[[sp2 k2] q3]| |]; [|reflexivity..]. destruct k2; reflexivity.
Qed.

Lemma block_sequence_entry_if p first :
  block_sequence_entry p first =
  do p <- (if first then do (_, p) <- peek p; Ok (skip p) else Ok p);
  do (t, p) <- peek p;
  let (sp, k) := t in
  if tis TBlockEnd k then do p <- pop_state p; Ok ((ESequenceEnd, sp), skip p)
  else if tis TBlockEntry k then
    node_or_empty [TBlockEntry; TBlockEnd] (skip p) SBlockSequenceEntry true false
  else Err (PErr 8 (sp_start sp)).
Proof.
  unfold block_sequence_entry, node_or_empty.
  destruct (if first then _ else _) as [q| |]; [|reflexivity..].
  destruct (peek q) as [[[sp k] q2]| |]; [|reflexivity..]. destruct k; cbn [tis]; try reflexivity.
  destruct (peek (skip q2)) as [[[sp2 k2] q3]| |]; [|reflexivity..]. destruct k2; reflexivity.
Qed.

Lemma flow_sequence_entry_mapping_key_if p :
  flow_sequence_entry_mapping_key p =
  node_or_empty [TValue; TFlowEntry; TFlowSequenceEnd] p SFlowSequenceEntryMappingValue false false.
Proof.
  unfold flow_sequence_entry_mapping_key, node_or_empty. destruct (peek p) as [[[sp k] q]| |]; [|reflexivity..].
  destruct k; reflexivity.
Qed.

Lemma flow_sequence_entry_mapping_value_if p :
  flow_sequence_entry_mapping_value p =
  do (t, p) <- peek p;
  if tis TValue (snd t) then
    do (t2, p) <- peek (skip p);
    let fin := SFlowSequenceEntryMappingEnd (sp_end (fst t2)) in
    if tin [TFlowEntry; TFlowSequenceEnd] (snd t2) then Ok ((empty_scalar, fst t2), set_state p fin)
    else parse_node (push_state (set_state p SFlowSequenceEntryMappingValue) fin) false false
  else Ok ((empty_scalar, fst t), set_state p (SFlowSequenceEntryMappingEnd (sp_end (fst t)))).
Proof.
  unfold flow_sequence_entry_mapping_value. destruct (peek p) as [[[sp k] q]| |]; [|reflexivity..].
  destruct k; cbn [tis snd fst]; try reflexivity.
  destruct (peek (skip q)) as [[[sp2 k2] q3]| |]; [|reflexivity..]. destruct k2; reflexivity.
Qed.
