(* What the two no-panic proofs of the scanner share, for any input type [I]: the judgment [wp] ("never Panic"), the
   relation [keeps] that a character-level scanner maintains on the skeleton fields, and the skeleton invariant
   [SInv].  ScanWP.v (buffered input) and ScanSafeStrWP.v (string input) state the same definitions at their input
   type, convertible with these; ScanSafeSkel.v walks the token-level skeleton once over them.  First, when
   [insert_at] (the back-insertion of a token, Model/SPrim.v) succeeds and what it returns. *)
From Coq Require Import List NArith ZArith Bool Arith Lia.
Import ListNotations.
Require Import Parser SBase SPrim.
Local Open Scope nat_scope.

Lemma insert_at_ok {A} (x : A) : forall n l, n <= length l ->
  exists l', insert_at n x l = Some l' /\ length l' = S (length l).
Proof.
  induction n as [|n IH]; intros l H; cbn [insert_at].
  - eexists; split; reflexivity.
  - destruct l as [|y r]; cbn [length] in H; [lia|].
    destruct (IH r) as [l' [E L]]; [lia|]. rewrite E. eexists; split; [reflexivity|]. cbn [length]. lia.
Qed.
Lemma insert_at_none {A} (x : A) : forall n l, length l < n -> insert_at n x l = None.
Proof.
  induction n as [|n IH]; intros l H; [lia|]. cbn [insert_at].
  destruct l as [|y r]; [reflexivity|]. cbn [length] in H. rewrite IH; [reflexivity|lia].
Qed.
(* insert_at succeeds iff the position is within (or just past) the list *)
Lemma insert_at_iff {A} (x : A) n l : (exists l', insert_at n x l = Some l') <-> n <= length l.
Proof.
  split.
  - intros [l' E]. destruct (Nat.le_gt_cases n (length l)) as [H|H]; [exact H|].
    rewrite (insert_at_none x n l H) in E. discriminate.
  - intros H. destruct (insert_at_ok x n l H) as [l' [E _]]. exists l'; exact E.
Qed.
Lemma insert_at_length {A} (x : A) n l l' : insert_at n x l = Some l' -> length l' = S (length l).
Proof.
  intros E. assert (H : n <= length l) by (apply (insert_at_iff x); eauto).
  destruct (insert_at_ok x n l H) as [l2 [E2 L]]. congruence.
Qed.

Section Skel.
Context {I : Type}.
Notation st := (sc I).
Notation M := (@M I).

(* never Panic; an error or exhausted fuel ends the run and is not a panic *)
Definition wp {A} (m : M A) (Q : A -> st -> Prop) (s : st) : Prop :=
  match m s with
  | Ok (a, s') => Q a s'
  | Err _ _ => True
  | OutOfFuel => True
  | Panic _ => False
  end.

Lemma wp_ret {A} (a : A) (Q : A -> st -> Prop) s : Q a s -> wp (ret a) Q s.
Proof. auto. Qed.
Lemma wp_bind {A B} (m : M A) (f : A -> M B) (Q : B -> st -> Prop) s :
  wp m (fun a s' => wp (f a) Q s') s -> wp (bind m f) Q s.
Proof. unfold wp, bind. destruct (m s) as [[a s']| | |]; auto. Qed.
Lemma wp_mono {A} (m : M A) (Q Q' : A -> st -> Prop) s :
  wp m Q s -> (forall a s', Q a s' -> Q' a s') -> wp m Q' s.
Proof. unfold wp. destruct (m s) as [[a s']| | |]; auto. Qed.
Lemma wp_fail {A} site mk (Q : A -> st -> Prop) s : wp (@fail I A site mk) Q s.
Proof. exact Logic.I. Qed.
Lemma wp_oof {A} (Q : A -> st -> Prop) s : wp (@oof I A) Q s.
Proof. exact Logic.I. Qed.
Lemma wp_get (Q : st -> st -> Prop) s : Q s s -> wp get Q s.
Proof. auto. Qed.
Lemma wp_put s0 (Q : unit -> st -> Prop) s : Q tt s0 -> wp (put s0) Q s.
Proof. auto. Qed.
Lemma wp_modify f (Q : unit -> st -> Prop) s : Q tt (f s) -> wp (modify f) Q s.
Proof. auto. Qed.
Lemma wp_mark (Q : marker -> st -> Prop) s : Q (sc_mark s) s -> wp mark Q s.
Proof. auto. Qed.

(* all fields other than the input are untouched by an input operation *)
Definition same_but_input (s s' : st) : Prop := s' = set_in (sc_in s') s.

(* the skeleton: what the character-level scanners must leave alone *)
Definition keeps (s s' : st) : Prop :=
  sc_sks s' = sc_sks s /\ sc_flow_level s' = sc_flow_level s /\ sc_tokens s' = sc_tokens s
  /\ sc_tokens_parsed s' = sc_tokens_parsed s /\ sc_stream_start s' = sc_stream_start s
  /\ sc_stream_end s' = sc_stream_end s /\ sc_ifms s' = sc_ifms s
  /\ ((sc_indent s' = sc_indent s /\ sc_indents s' = sc_indents s)
      \/ (sc_indent s', sc_indents s') = unroll_nb (sc_indents s) (sc_indent s)).

Lemma keeps_refl s : keeps s s.
Proof. unfold keeps. repeat split; auto. Qed.

Lemma unroll_nb_idem l ind : unroll_nb (snd (unroll_nb l ind)) (fst (unroll_nb l ind)) = unroll_nb l ind.
Proof.
  revert ind; induction l as [|i r IH]; intros ind; cbn [unroll_nb]; [reflexivity|].
  destruct (in_needs_block_end i) eqn:E; cbn [fst snd unroll_nb]; [rewrite E; reflexivity|apply IH].
Qed.

Lemma keeps_trans s1 s2 s3 : keeps s1 s2 -> keeps s2 s3 -> keeps s1 s3.
Proof.
  unfold keeps. intros (A1 & A2 & A3 & A4 & A5 & A6 & A7 & A9) (B1 & B2 & B3 & B4 & B5 & B6 & B7 & B9).
  repeat split; try congruence.
  destruct A9 as [[Ai Al]|Au], B9 as [[Bi Bl]|Bu].
  - left; split; congruence.
  - right. rewrite Bu, Ai, Al. reflexivity.
  - right. rewrite Bi, Bl. exact Au.
  - right. rewrite Bu.
    assert (Hi : sc_indent s2 = fst (unroll_nb (sc_indents s1) (sc_indent s1))) by (rewrite <- Au; reflexivity).
    assert (Hl : sc_indents s2 = snd (unroll_nb (sc_indents s1) (sc_indent s1))) by (rewrite <- Au; reflexivity).
    rewrite Hi, Hl. apply unroll_nb_idem.
Qed.

Lemma keeps_input s s' : same_but_input s s' -> keeps s s'.
Proof. unfold same_but_input. intros ->. unfold keeps. cbn. repeat split; auto. Qed.

(* the skeleton invariant *)
(* I2: the indent stack is strictly increasing towards the top and bottoms out at -1 *)
Fixpoint sorted_from (top : Z) (l : list indent_rec) : Prop :=
  match l with
  | [] => top = (-1)%Z
  | i :: r => (in_indent i < top)%Z /\ sorted_from (in_indent i) r
  end.
(* I3: a possible simple key points into (or just past) the token queue *)
Definition sk_in_range (s : st) (k : simple_key) : Prop :=
  sk_possible k = true ->
  (sc_tokens_parsed s <= sk_token_number k)%N
  /\ (sk_token_number k <= sc_tokens_parsed s + N.of_nat (length (sc_tokens s)))%N.

Definition SInv (s : st) : Prop :=
  (if sc_stream_start s then N.of_nat (length (sc_sks s)) = (sc_flow_level s + 1)%N
   else sc_sks s = [] /\ sc_flow_level s = 0%N)
  /\ sorted_from (sc_indent s) (sc_indents s)
  /\ Forall (sk_in_range s) (sc_sks s).

Lemma sorted_from_ge l : forall top, sorted_from top l -> (-1 <= top)%Z.
Proof. induction l as [|i r IH]; intros top H; cbn in H; [lia|]. destruct H as [H1 H2]. specialize (IH _ H2). lia. Qed.

Lemma sorted_unroll_nb l : forall ind, sorted_from ind l ->
  sorted_from (fst (unroll_nb l ind)) (snd (unroll_nb l ind)).
Proof.
  induction l as [|i r IH]; intros ind H; cbn [unroll_nb]; [exact H|].
  destruct (in_needs_block_end i); cbn [fst snd]; [exact H|]. destruct H as [_ H]. apply IH. exact H.
Qed.

Lemma sinv_keeps s s' : keeps s s' -> SInv s -> SInv s'.
Proof.
  intros (A1 & A2 & A3 & A4 & A5 & A6 & A7 & A9) (I1 & I2 & I3). unfold SInv.
  rewrite A1, A2, A5. split; [exact I1|]. split.
  - destruct A9 as [[-> ->]|Au]; [exact I2|].
    pose proof (sorted_unroll_nb _ _ I2) as H. rewrite <- Au in H. exact H.
  - eapply Forall_impl; [|exact I3]. intros k Hk. unfold sk_in_range in *. rewrite A3, A4. exact Hk.
Qed.
End Skel.
