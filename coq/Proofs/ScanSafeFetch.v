(* Buffered input of any capacity >= 8: the token-level skeleton of the scanner preserves the skeleton invariant and
   never panics, given the contracts of the character-level entry points.  The walk is that of ScanSafeSkel.v, read
   with the buffered length [bl] as the number of available characters. *)
From Coq Require Import List NArith ZArith Bool Arith Lia.
Import ListNotations.
Require Import Parser SBase SPrim SDir SScalar SFetch SBuf Pipe ScanWP C02run.
Require ScanSafeSkel.
Local Open Scope nat_scope.

Lemma insert_at_length {A} (x : A) n l l' : insert_at n x l = Some l' -> length l' = S (length l).
Proof. exact (ScanSkel.insert_at_length x n l l'). Qed.

Section Fetch.
Variable cap : nat.
Hypothesis cap_ge : 8 <= cap.
Notation B := (bops cap).
Notation st := (sc bufin).
Notation M := (@M bufin).

Hypothesis H_next : spec_skip_to_next_token cap.
Hypothesis H_ws : spec_skip_ws_to_eol cap.
Hypothesis H_yws : spec_skip_yaml_whitespace cap.
Hypothesis H_dir : spec_scan_directive cap.
Hypothesis H_tag : spec_scan_tag cap.
Hypothesis H_anchor : spec_scan_anchor cap.
Hypothesis H_flow : spec_scan_flow_scalar cap.
Hypothesis H_plain : spec_scan_plain_scalar cap.
Hypothesis H_block : spec_scan_block_scalar cap.

(* no possible simple key points at the head of the token queue: the head may be handed out *)
Definition nokey (s : st) : Prop :=
  forall k, In k (sc_sks s) -> sk_possible k = true -> sk_token_number k <> sc_tokens_parsed s.

(* the invariant at the level of next_token / scan_all *)
Definition J (s : st) : Prop := SInv s /\ (sc_stream_start s = false -> sc_indents s = []).
Definition SInv' (s : st) : Prop := J s /\ (sc_token_available s = true -> nokey s).

Theorem scan_all_never_panics : forall F fuel s acc n,
  SInv' s -> snd (scan_all B F fuel s acc) <> SPanic n.
Proof.
  (* the contracts, read in the judgment of ScanSkel.v (see [wp_skel]) *)
  generalize H_next H_ws H_yws H_dir H_tag H_anchor H_flow H_plain H_block.
  unfold spec_skip_to_next_token, spec_skip_ws_to_eol, spec_skip_yaml_whitespace, spec_scan_directive, spec_scan_tag,
    spec_scan_anchor, spec_scan_flow_scalar, spec_scan_plain_scalar, spec_scan_block_scalar.
  rewrite wp_skel.
  refine (ScanSafeSkel.scan_all_never_panics B bl _ _ _ _ _ _).
  - intros s s' E. unfold bl. rewrite E. reflexivity.
  - intros n Q s Hn HQ. apply (wp_look cap cap_ge); [lia|]. intros s' Hs H1 H2 _. exact (HQ s' Hs H1 H2).
  - exact (wp_peekn cap cap_ge).
  - exact (wp_assert_buflen cap cap_ge).
  - intros Q s HQ. apply (wp_skip_non_blank cap cap_ge). intros s' K E. apply HQ; [exact K|lia].
  - intros n Q s Hn HQ. apply (wp_skip_n_non_blank cap cap_ge); [exact Hn|]. intros s' K E. apply HQ; [exact K|lia].
Qed.

Theorem scan_init_never_panics : forall F fuel input n,
  snd (scan_all B F fuel (init_sc {| b_buf := []; b_rest := input |}) []) <> SPanic n.
Proof. intros. apply scan_all_never_panics. exact (ScanSafeSkel.sinv'_init _). Qed.

Theorem run_buf_never_panics : forall input n, snd (run_buf cap input) <> PPanic n.
Proof.
  intros input n. unfold run_buf. cbv zeta.
  pose proof (scan_init_never_panics (2 * length input + 10) (4 * (2 * length input + 10) + 20) input) as HS.
  change (buf_ops cap) with B.
  destruct (scan_all B _ _ _ _) as [toks se]. cbn [snd] in HS.
  pose proof (parser_run_wellformed toks false se (4 * (4 * (2 * length input + 10) + 20) + 40)) as [_ HE].
  unfold init_parser in HE. intros EP. rewrite EP in HE. cbn [end_ok] in HE. exact (HS n HE).
Qed.

End Fetch.

Print Assumptions scan_all_never_panics.
Print Assumptions scan_init_never_panics.
Print Assumptions run_buf_never_panics.
