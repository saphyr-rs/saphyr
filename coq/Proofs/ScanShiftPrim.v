(* C15 tail independence of the scanner (see ScanShift.v): the contracts of the PRIMITIVES family under the state
   relation [SH d], which are those of ScanLockPrim.v at the lock [shf_lock d]; the rules of ScanLockPrim.v that
   ScanShiftTop.v calls are restated for [swp d] and [SH d], each taking [d] first. *)
From Coq Require Import List NArith ZArith Bool Arith Lia.
Import ListNotations.
Require Import Parser SBase SPrim SDir SScalar SFetch ScanLock ScanLockPrim ScanShift.
Local Open Scope nat_scope.

Lemma F2_last {A B} (R : A -> B -> Prop) l1 l2 d1 d2 : Forall2 R l1 l2 -> R d1 d2 -> R (last l1 d1) (last l2 d2).
Proof. exact (ScanLockPrim.F2_last R l1 l2 d1 d2). Qed.
Lemma skipn_tl {A} j (l : list A) : skipn j (tl l) = skipn (S j) l.
Proof. destruct l; [destruct j; reflexivity|reflexivity]. Qed.

Section Generic.
Variable d : shift.
Local Notation bwp := (swp d).
Local Notation L := (shf_lock d).
Local Notation skel_post Q s1 :=
  (forall t1 t2, SH d t1 t2 -> rm t1 = rm s1 -> Q tt t1 tt t2).

Lemma bwp_call_eq {A B1 B2} (m1 m2 : BM A) (f1 : A -> BM B1) (f2 : A -> BM B2) (Q : B1 -> bst -> B2 -> bst -> Prop) s1 s2 :
  bwp m1 m2 (bpost d eq) s1 s2 ->
  (forall a t1 t2, SH d t1 t2 -> bwp (f1 a) (f2 a) Q t1 t2) ->
  bwp (bind m1 f1) (bind m2 f2) Q s1 s2.
Proof. exact (lwp_call_eq (M:=MS d) (R:=SH d) m1 m2 f1 f2 Q s1 s2). Qed.
Lemma bwp_put_br (u1 u2 : bst) (Q : unit -> bst -> unit -> bst -> Prop) s1 s2 :
  SH d u1 u2 -> rm u1 = rm s1 -> skel_post Q s1 -> bwp (put u1) (put u2) Q s1 s2.
Proof. exact (lwp_put_l (M:=MS d) (SH d) u1 u2 Q s1 s2). Qed.
Lemma bwp_fail_mark {A1 A2} site (Q : A1 -> bst -> A2 -> bst -> Prop) s1 s2 :
  SH d s1 s2 -> bwp (@fail strin A1 site (sc_mark s1)) (@fail strin A2 site (sc_mark s2)) Q s1 s2.
Proof. exact (lwp_fail_mark L site Q s1 s2). Qed.
Lemma bwp_bpost_al_weaken {A1 A2} (VR : A1 -> A2 -> Prop) (m1 : BM A1) (m2 : BM A2) s1 s2 :
  bwp m1 m2 (bpost_al d VR) s1 s2 -> bwp m1 m2 (bpost d VR) s1 s2.
Proof. exact (lwp_bpost_al_weaken (M:=MS d) (R:=SH d) VR m1 m2 s1 s2). Qed.
Lemma bwp_in_flow (Q : bool -> bst -> bool -> bst -> Prop) s1 s2 :
  SH d s1 s2 -> Q (0 <? sc_flow_level s1)%N s1 (0 <? sc_flow_level s1)%N s2 -> bwp in_flow in_flow Q s1 s2.
Proof. exact (lwp_in_flow L Q s1 s2). Qed.

(* the [number] arguments of roll_indent are token numbers: shifted by [sh_k d] *)
Definition NS (o1 o2 : option N) : Prop :=
  match o1, o2 with Some a, Some b => (a + sh_k d)%N = b | None, None => True | _, _ => False end.
Lemma NS_none : NS None None. Proof. exact I. Qed.
Lemma shift_eqb a b k : (a + k =? b + k)%N = (a =? b)%N.
Proof. destruct (N.eqb_spec (a + k) (b + k)); destruct (N.eqb_spec a b); try reflexivity; lia. Qed.
Lemma shift_sub a b k : (a + k - (b + k))%N = (a - b)%N.
Proof. lia. Qed.

(* whether a simple key is stale - the 1024-character rule and the line test - is invariant under the shift *)
Definition stale_of (s : bst) (k : simple_key) : bool :=
  sk_possible k && (sc_flow_level s =? 0)%N
  && ((m_line (sk_mark k) <? m_line (sc_mark s))%N || (m_index (sk_mark k) + SIMPLE_KEY_MAX <? m_index (sc_mark s))%N).
Lemma stale_brk s1 s2 k1 k2 : SH d s1 s2 -> KS d k1 k2 -> stale_of s2 k2 = stale_of s1 k1.
Proof.
  intros H [P R N' M]. unfold stale_of. rewrite <- P, <- (SH_flow_level H).
  destruct (sk_possible k1) eqn:EP; [|reflexivity]. cbn [andb]. f_equal. specialize (M eq_refl).
  rewrite (MS_line_ltb d _ _ _ _ M (sh_mark H)), (MS_index_far d _ _ _ _ SIMPLE_KEY_MAX M (sh_mark H)). reflexivity.
Qed.

(* the contracts *)
Theorem skip_ws_to_eol_ok : shf_skip_ws_to_eol d.
Proof. exact (ScanLockPrim.skip_ws_to_eol_ok L). Qed.
Theorem skip_to_next_token_ok : shf_skip_to_next_token d.
Proof. exact (ScanLockPrim.skip_to_next_token_ok L). Qed.
Theorem skip_yaml_whitespace_ok : shf_skip_yaml_whitespace d.
Proof. exact (ScanLockPrim.skip_yaml_whitespace_ok L). Qed.
Theorem scan_anchor_ok : shf_scan_anchor d.
Proof. exact (ScanLockPrim.scan_anchor_ok L). Qed.

End Generic.

Print Assumptions skip_ws_to_eol_ok.
Print Assumptions skip_to_next_token_ok.
Print Assumptions skip_yaml_whitespace_ok.
Print Assumptions scan_anchor_ok.
