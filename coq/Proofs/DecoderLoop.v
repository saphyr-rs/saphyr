(* C18 — what decode_loop RETURNS, for every decoder that meets a per-call specification.

   [call_ok]: a call of the decoder in a state it can be in between calls ([bnd]) on the remaining input [rem]
   with [spare] free bytes consumes a run of characters of the one-shot specification ([good_prefix]: the first pieces of
   [rem], all of them characters), appends exactly these, fits them into the spare capacity, ends in such a
   state again, and stops for one of three reasons: the input is used up (InputEmpty); or there is input
   left (OutputFull), in which case at least one byte was consumed if the call was given K spare bytes; or the
   next piece is a malformed sequence, reported with its length and no look-ahead (Malformed (ml, 0)).

   [xloop_result]: for such a decoder, every trap, every callback and every input, the loop of encoding.rs
   with a growth step of at least K returns — within 2 * input.len() + 2 iterations, without any of the
   modelled panics — exactly [apply_trap] of the pieces of the input. *)
From Coq Require Import List NArith Bool Lia Arith.
Import ListNotations.
Require Import Consts Decode TagSpec EncodingSpec DecodeProofs ListKit.
Open Scope N_scope.
Arguments N.add : simpl never.
Arguments N.sub : simpl never.
Arguments N.mul : simpl never.
Arguments N.div : simpl never.
Arguments N.modulo : simpl never.
Arguments N.eqb : simpl never.
Arguments N.ltb : simpl never.
Arguments N.leb : simpl never.
Arguments N.max : simpl never.
Arguments N.to_nat : simpl never.
Arguments N.of_nat : simpl never.

Lemma nlen_nil : nlen (@nil N) = 0.
Proof. reflexivity. Qed.

Lemma nlen_zero : forall (l : list N), nlen l = 0 -> l = [].
Proof. intros [|a l] H; [reflexivity|]. unfold nlen in H. cbn [length] in H. lia. Qed.

Lemma nlen_pos : forall (l : list N), l <> [] -> 1 <= nlen l.
Proof. intros [|a l] H; [congruence|]. rewrite nlen_cons. lia. Qed.

Lemma skipn_N_add : forall (l : list N) a b,
    skipn (N.to_nat (a + b)) l = skipn (N.to_nat b) (skipn (N.to_nat a) l).
Proof.
  intros l a b. rewrite N2Nat.inj_add. symmetry. apply skipn_add.
Qed.

Lemma text_len_app : forall a b, text_len (a ++ b) = text_len a + text_len b.
Proof. induction a as [|c a IH]; intros b; cbn [app text_len]; [lia|]. rewrite IH. lia. Qed.

Lemma utf8_len_range : forall c, 1 <= utf8_len c <= 4.
Proof.
  intros c. unfold utf8_len. destruct (c <? 128); [lia|]. destruct (c <? 2048); [lia|]. destruct (c <? 65536); lia.
Qed.

Lemma utf8_len_ascii : forall c, c < 128 -> utf8_len c = 1.
Proof. intros c H. unfold utf8_len. rewrite (proj2 (N.ltb_lt c 128) H). reflexivity. Qed.

(* Pieces *)
Section PiecesFacts.
  Variable next : list N -> piece.
  Hypothesis next_size : forall bs, bs <> [] -> 1 <= psize (next bs) <= nlen bs.

  Lemma pieces_go_enough : forall fuel bs, (length bs <= fuel)%nat -> pieces_go next fuel bs = pieces next bs.
  Proof.
    intros fuel bs. remember (length bs) as m eqn:Em. revert fuel bs Em.
    induction m as [m IH] using lt_wf_ind. intros fuel bs Em Hf.
    unfold pieces. rewrite <- Em.
    destruct bs as [|b tl].
    - destruct fuel; destruct m; reflexivity.
    - cbn [length] in Em. destruct m as [|m']; [discriminate|]. destruct fuel as [|f]; [lia|].
      cbn [pieces_go]. f_equal.
      pose proof (next_size (b :: tl) ltac:(discriminate)) as [H1 H2].
      set (k := N.to_nat (psize (next (b :: tl)))) in *.
      assert (Hk : (1 <= k)%nat) by (unfold k; lia).
      assert (Hl : (length (skipn k (b :: tl)) < S m')%nat).
      { rewrite skipn_length. cbn [length]. lia. }
      rewrite (IH _ Hl f _ eq_refl) by lia.
      rewrite (IH _ Hl m' _ eq_refl) by lia. reflexivity.
  Qed.

  Lemma pieces_nil : pieces next [] = [].
  Proof. reflexivity. Qed.

  Lemma pieces_unfold : forall bs, bs <> [] ->
      pieces next bs = next bs :: pieces next (skipn (N.to_nat (psize (next bs))) bs).
  Proof.
    intros [|b tl] H; [congruence|]. unfold pieces at 1. cbn [length pieces_go]. f_equal.
    apply pieces_go_enough.
    pose proof (next_size (b :: tl) ltac:(discriminate)) as [H1 H2].
    rewrite skipn_length. cbn [length]. lia.
  Qed.

  (* a run of characters at the head of a byte string: the characters and the number of bytes *)
  Inductive good_prefix : list N -> list N -> N -> Prop :=
  | gp_nil : forall rem, good_prefix rem [] 0
  | gp_cons : forall rem c k cs rd,
      rem <> [] -> next rem = PChar c k -> good_prefix (skipn (N.to_nat k) rem) cs rd ->
      good_prefix rem (c :: cs) (k + rd).

  Lemma good_prefix_le : forall rem cs rd, good_prefix rem cs rd -> rd <= nlen rem.
  Proof.
    induction 1 as [rem|rem c k cs rd Hne Hn _ IH]; [lia|].
    pose proof (next_size rem Hne) as [H1 H2]. rewrite Hn in H1, H2. cbn [psize] in H1, H2.
    rewrite nlen_skipn in IH. lia.
  Qed.

  Lemma good_prefix_app : forall rem cs rd, good_prefix rem cs rd ->
      forall cs2 rd2, good_prefix (skipn (N.to_nat rd) rem) cs2 rd2 -> good_prefix rem (cs ++ cs2) (rd + rd2).
  Proof.
    induction 1 as [rem|rem c k cs rd Hne Hn Hg IH]; intros cs2 rd2 H2.
    - cbn [app]. replace (0 + rd2) with rd2 by lia. exact H2.
    - cbn [app]. replace (k + rd + rd2) with (k + (rd + rd2)) by lia.
      apply gp_cons; [assumption|assumption|]. apply IH. rewrite <- skipn_N_add. exact H2.
  Qed.

  Lemma apply_good_prefix : forall t input rem cs rd, good_prefix rem cs rd ->
      forall off text,
        apply_trap t input off (pieces next rem) text
        = apply_trap t input (off + rd) (pieces next (skipn (N.to_nat rd) rem)) (text ++ cs).
  Proof.
    intros t input. induction 1 as [rem|rem c k cs rd Hne Hn _ IH]; intros off text.
    - rewrite app_nil_r. replace (off + 0) with off by lia. reflexivity.
    - rewrite (pieces_unfold rem Hne). rewrite Hn. cbn [apply_trap psize].
      rewrite IH. rewrite <- skipn_N_add. rewrite <- app_assoc. cbn [app].
      replace (off + k + rd) with (off + (k + rd)) by lia. reflexivity.
  Qed.
End PiecesFacts.

(* The loop *)
Section LoopResult.
  Variable dstate : Type.
  Variable xstep : dstate -> list N -> N -> dstate * xresult * list N.
  Variable next : list N -> piece.
  (* [bnd d rem]: d is a state the decoder can be in between two calls when [rem] is the input still to come *)
  Variable bnd : dstate -> list N -> Prop.
  Variables K div min : N.
  Hypothesis next_size : forall bs, bs <> [] -> 1 <= psize (next bs) <= nlen bs.
  Hypothesis bad_small : forall bs ml, next bs = PBad ml -> ml <= 255.
  Hypothesis min_covers : K <= min.

  Definition call_ok (d : dstate) (rem : list N) (spare : N) : Prop :=
    let '(d', r, cs) := xstep d rem spare in
    text_len cs <= spare /\
    exists rd0, good_prefix next rem cs rd0 /\
      match r with
      | XInputEmpty => rd0 = nlen rem
      | XOutputFull rd =>
          rd = rd0 /\ rd0 < nlen rem /\ (K <= spare -> 0 < rd0) /\ bnd d' (skipn (N.to_nat rd) rem)
      | XMalformed ml af rd =>
          af = 0 /\ rd0 < nlen rem /\ next (skipn (N.to_nat rd0) rem) = PBad ml /\ rd = rd0 + ml /\
          bnd d' (skipn (N.to_nat rd) rem)
      end.

  Hypothesis call_spec : forall d rem spare, bnd d rem -> call_ok d rem spare.

  Variable t : strap.
  Variable g : N -> N -> list N -> list N * N -> N.
  Variable input : list N.
  Let n := nlen input.

  Definition xneed (c : xconfig dstate) : N :=
    2 * (n - x_total c) + (if x_cap c - text_len (x_text c) <? K then 2 else 1).

  Lemma xloop_go_result : forall fuel c,
      bnd (x_dec c) (skipn (N.to_nat (x_total c)) input) -> x_total c <= n -> xneed c <= N.of_nat fuel ->
      result_of input (xloop_go dstate xstep div min fuel (xtrap_of t g) input c)
      = apply_trap t input (x_total c) (pieces next (skipn (N.to_nat (x_total c)) input)) (x_text c).
  Proof.
    induction fuel as [|f IH]; intros [total d text cap] Hd Ht Hneed;
      cbn [x_dec x_total x_text x_cap] in *.
    - exfalso. unfold xneed in Hneed. cbn [x_total x_text x_cap] in Hneed.
      destruct (cap - text_len text <? K); lia.
    - cbn [xloop_go]. unfold xloop_step. cbn [x_dec x_total x_text x_cap]. fold n.
      destruct (N.ltb_spec n total) as [Hlt|_]; [lia|].
      set (rem := skipn (N.to_nat total) input).
      set (spare := cap - text_len text).
      pose proof (call_spec d rem spare Hd) as Hc. unfold call_ok in Hc.
      destruct (xstep d rem spare) as [[d' r] cs].
      destruct Hc as (Hw & rd0 & Hgp & Hr).
      destruct (N.ltb_spec spare (text_len cs)) as [Hbad|_]; [lia|].
      assert (Hrem : nlen rem = n - total) by (unfold rem; apply nlen_skipn).
      pose proof (good_prefix_le next next_size _ _ _ Hgp) as Hrd0.
      rewrite (apply_good_prefix next next_size t input rem cs rd0 Hgp total text).
      destruct r as [|rd|ml af rd].
      + (* InputEmpty *)
        subst rd0. rewrite skipn_all2 by (unfold nlen; lia). cbn [result_of apply_trap pieces pieces_go length]. reflexivity.
      + (* OutputFull *)
        destruct Hr as (-> & Hlt & Hprog & Hb).
        rewrite IH; cbn [x_dec x_total x_text x_cap].
        * unfold rem. rewrite <- skipn_N_add. reflexivity.
        * rewrite skipn_N_add. exact Hb.
        * lia.
        * unfold xneed in *. cbn [x_total x_text x_cap] in *. fold spare in Hneed.
          rewrite text_len_app.
          pose proof (reserve_spare (text_len text + text_len cs) cap (growth_step div min n)) as Hsp.
          pose proof (growth_step_min div min n) as Hg.
          destruct (N.ltb_spec (reserve (text_len text + text_len cs) cap (growth_step div min n)
                                - (text_len text + text_len cs)) K); [lia|].
          destruct (N.ltb_spec spare K); [lia|].
          specialize (Hprog ltac:(assumption)). lia.
      + (* Malformed *)
        destruct Hr as (-> & Hlt & Hn & -> & Hb).
        set (rem2 := skipn (N.to_nat rd0) rem) in *.
        assert (Hne2 : rem2 <> []).
        { intros E. assert (nlen rem2 = 0) by (rewrite E; reflexivity).
          unfold rem2 in *. rewrite nlen_skipn in *. lia. }
        pose proof (next_size rem2 Hne2) as [Hml1 Hml2]. rewrite Hn in Hml1, Hml2. cbn [psize] in Hml1, Hml2.
        assert (Hrem2 : nlen rem2 = n - total - rd0) by (unfold rem2; rewrite nlen_skipn; lia).
        pose proof (bad_small _ _ Hn) as Hml255.
        rewrite (pieces_unfold next next_size rem2 Hne2). rewrite Hn. cbn [psize].
        assert (Hskip : skipn (N.to_nat ml) rem2 = skipn (N.to_nat (total + (rd0 + ml))) input).
        { unfold rem2, rem. rewrite <- !skipn_N_add. f_equal; lia. }
        assert (Hidx : forall u8, malformed_index u8 n (total + (rd0 + ml)) ml 0 = inr (total + rd0)).
        { intros u8. rewrite malformed_index_ok by lia. f_equal. lia. }
        assert (Hb' : bnd d' (skipn (N.to_nat (total + (rd0 + ml))) input)).
        { rewrite skipn_N_add. exact Hb. }
        assert (Hneed' : forall t2 c2,
                   xneed (XConfig (total + (rd0 + ml)) d' t2 c2) <= N.of_nat f).
        { intros t2 c2. unfold xneed in *. cbn [x_total x_text x_cap] in *.
          destruct (c2 - text_len t2 <? K); destruct (cap - text_len text <? K); lia. }
        destruct t as [| | |cb]; cbn [xtrap_of apply_trap].
        * rewrite IH; cbn [x_dec x_total x_text x_cap]; [|exact Hb'|lia|apply Hneed'].
          rewrite Hskip. f_equal. lia.
        * rewrite Hidx. cbn [result_of]. reflexivity.
        * rewrite IH; cbn [x_dec x_total x_text x_cap]; [|exact Hb'|lia|apply Hneed'].
          rewrite Hskip. f_equal. lia.
        * rewrite Hidx. unfold xcb_of. cbn [fst].
          destruct (cb ml 0 (skipn (N.to_nat (total + rd0)) input) (text ++ cs)) as [t2|[|]].
          -- rewrite IH; cbn [x_dec x_total x_text x_cap]; [|exact Hb'|lia|apply Hneed'].
             rewrite Hskip. f_equal. lia.
          -- cbn [result_of]. reflexivity.
          -- cbn [result_of]. reflexivity.
  Qed.

  Lemma xloop_result : forall d0 fuel, bnd d0 input -> (decode_fuel input <= fuel)%nat ->
      result_of input (xdecode_loop dstate xstep div min fuel d0 (xtrap_of t g) input)
      = apply_trap t input 0 (pieces next input) [].
  Proof.
    intros d0 fuel Hb Hf. unfold xdecode_loop, xinitial_config.
    rewrite xloop_go_result; cbn [x_dec x_total x_text x_cap].
    - reflexivity.
    - exact Hb.
    - lia.
    - unfold xneed. cbn [x_total x_text x_cap]. unfold decode_fuel in Hf. fold n in Hf.
      destruct (reserve 0 0 (nlen input) - text_len [] <? K); lia.
  Qed.
End LoopResult.
