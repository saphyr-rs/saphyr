(* C14, scanner level: the line-break style does not change what the scanner computes.

   Two runs of the scanner model over the STRING input are related: side 1 reads a CR-free text [x], side 2 reads its
   image [img md x] in which every LF is replaced by CR LF ([md = CRLF]) or by a lone CR ([md = CR]).  Relational
   partial-correctness calculus [bwp]: when both runs end properly (a value or an error) the values / states
   satisfy the postcondition, or the errors are the same error site at markers with the same LINE and COLUMN
   (character indices differ: in CRLF mode side 2 has consumed one more character per line break).  A run that
   ends in OutOfFuel or Panic (either side) is not this proof's concern (ScanFuel*.v / ScanSafe*.v).

   [bwp] is the calculus [lwp MR] of ScanLock.v and [BR md] is a lock ([brk_lock]): the character-level walk over the
   scanner functions is that of ScanLock*.v.  What is particular to the substitution: the two sides consume 1 against
   1 or 2 characters at a line break ([BR_break], [mark_step_nl]), so [skip_linebreak] / [skip_break] are one step
   there, and positions are aligned only up to the next line feed ([noLF]).

   The statements of this file and of ScanBrk*.v are about this file's own [rm], [rn], [lk], [noLF], [ers], [bump],
   [drop1], [dropn], [bl1], [nb1], [nl1], [Qe], [lit], [n2are], [n3are], [docind_val], [docend_val], [proper_end] (and
   its own [skip_linebreak_eval], [skip_break_eval]).  Each is the definition of the same name in ScanLock.v by
   conversion, as [bwp] is [lwp MR], [TR] is [Mtok MR], [ER] is [Mend MR] and [OTR] is [Motok MR]: [exact] and [apply]
   work across the two sets, [rewrite] and Ltac patterns (which match syntactically) do not.  Where the conversion
   would run through a nest of setters and be slow to check, [nb1_lock] (ScanBrkFetch.v) is the bridge.

   Three rules of the record [lock] (ScanLock.v), seen from here:
     l_lk0           the lookahead counter is read by buf_is_empty (a comparison with 0) and by the assert_buflen
                     tests, whose failure is a panic, of which [lwp] asks nothing: agreement on "= 0" is all a lock
                     needs ([BR] has equal counters, [SH] of ScanShift.v only this)
     l_set_adj_here  adjacent_value_allowed_at is only ever assigned the current index (scanner.rs: in
                     fetch_flow_collection_end and fetch_flow_scalar, `= self.mark.index`), so no rule for another value
     l_raw_read      raw_read is Input::raw_read_non_breakz_ch, which scan_block_scalar_content_line calls to take a
                     character straight from the input; it is a field of [InputOps] like lookahead, skip and
                     skip_n (rules [l_bump], [l_drop1], [l_dropn]), and what it does at a line break depends on how
                     side 2 shows the break, so each lock proves it from its own relation on inputs

   The token level ([brk_klock]: simple keys, token counter, flow level) is in ScanBrkFetch.v; SCANBRK.md gives the
   target and the contracts in prose. *)
From Coq Require Import List NArith ZArith Bool Arith Lia.
Import ListNotations.
Require Import Parser SBase SPrim SDir SScalar SFetch Positions BreakProofs ScanLock ScanLockPrim.
Local Open Scope nat_scope.

Notation bst := (sc strin).
Notation BM := (@M strin).
Notation sops := str_ops.

(* 1. The substitution *)
Inductive mode := CRLF | CR.
(* what a line feed becomes *)
Definition brk (md : mode) : list chr := match md with CRLF => [13%N; 10%N] | CR => [13%N] end.
Definition img (md : mode) (x : list chr) : list chr := flat_map (fun c => if (c =? 10)%N then brk md else [c]) x.
(* one character seen through the substitution at an ALIGNED position: LF is seen as CR, everything else as itself *)
Definition b1 (c : chr) : chr := if (c =? 10)%N then 13%N else c.

Definition nocr (l : list chr) : Prop := Forall (fun c => c <> 13%N) l.
(* none of the first k characters is a line feed: positions 0..k are aligned on the two sides *)
Definition noLF (k : nat) (l : list chr) : Prop := forall i, i < k -> nth i l 0%N <> 10%N.

Lemma img_crlf x : img CRLF x = crlf x.
Proof. reflexivity. Qed.
Lemma img_cr x : img CR x = cr x.
Proof.
  induction x as [|c r IH]; [reflexivity|]. unfold img, cr in *. cbn [flat_map map]. rewrite IH.
  destruct (c =? 10)%N; reflexivity.
Qed.

Lemma img_nil md : img md [] = [].
Proof. reflexivity. Qed.
Lemma img_lf md r : img md (10%N :: r) = brk md ++ img md r.
Proof. reflexivity. Qed.
Lemma img_other md c r : c <> 10%N -> img md (c :: r) = c :: img md r.
Proof. intros H. unfold img. cbn [flat_map]. apply N.eqb_neq in H. rewrite H. reflexivity. Qed.
Lemma img_app md a b : img md (a ++ b) = img md a ++ img md b.
Proof. unfold img. apply flat_map_app. Qed.

Lemma b1_other c : c <> 10%N -> b1 c = c.
Proof. intros H. unfold b1. apply N.eqb_neq in H. rewrite H. reflexivity. Qed.
Lemma b1_0 : b1 0%N = 0%N.
Proof. reflexivity. Qed.
Lemma b1_not_lf c : b1 c <> 10%N.
Proof. unfold b1. destruct (N.eqb_spec c 10); [discriminate|assumption]. Qed.
Lemma b1_sees : sees b1.
Proof. intros c. unfold b1. destruct (N.eqb_spec c 10) as [->|_]; [right; split; reflexivity|left; reflexivity]. Qed.

Lemma noLF_skipn k n l : noLF (n + k) l -> noLF k (skipn n l).
Proof. exact (ScanLock.noLF_skipn k n l). Qed.
Lemma noLF_tl k l : noLF (S k) l -> noLF k (tl l).
Proof. exact (ScanLock.noLF_tl k l). Qed.

(* the character at an aligned position *)
Lemma nth_img md k r : noLF k r -> nth k (img md r) 0%N = b1 (nth k r 0%N).
Proof.
  revert r. induction k as [|k IH]; intros r H.
  - destruct r as [|c r]; [reflexivity|]. destruct (N.eq_dec c 10) as [->|Hc].
    + rewrite img_lf. destruct md; reflexivity.
    + rewrite img_other by exact Hc. cbn [nth]. symmetry. apply b1_other. exact Hc.
  - destruct r as [|c r]; [reflexivity|]. apply noLF_cons in H. destruct H as [Hc H].
    rewrite img_other by exact Hc. cbn [nth]. apply IH. exact H.
Qed.
Lemma tl_img md r : nth 0 r 0%N <> 10%N -> tl (img md r) = img md (tl r).
Proof. destruct r as [|c r]; [reflexivity|]. cbn [nth]. intros H. rewrite img_other by exact H. reflexivity. Qed.
Lemma skipn_img md n r : noLF n r -> skipn n (img md r) = img md (skipn n r).
Proof.
  revert r. induction n as [|n IH]; intros r H; [reflexivity|].
  destruct r as [|c r]; [reflexivity|]. apply noLF_cons in H. destruct H as [Hc H].
  rewrite img_other by exact Hc. cbn [skipn]. apply IH. exact H.
Qed.
Lemma nocr_tl l : nocr l -> nocr (tl l).
Proof. intros H. destruct l; [exact H|]. inversion H; assumption. Qed.
Lemma nocr_skipn n l : nocr l -> nocr (skipn n l).
Proof. revert l. induction n as [|n IH]; intros l H; [exact H|]. destruct l; [exact H|]. cbn [skipn]. apply IH. inversion H; assumption. Qed.
Lemma nocr_nth l i : nocr l -> nth i l 0%N <> 13%N.
Proof.
  intros H. revert i. induction H as [|c r Hc Hr IH]; intros i; [destruct i; discriminate|].
  destruct i as [|i]; [exact Hc|apply IH].
Qed.

(* ---- character classes do not see the substitution (b1 only moves LF to CR, and the scanner's classes never
        separate the two) ---- *)
Definition bblind (p : chr -> bool) : Prop := forall c, p (b1 c) = p c.
(* comparison with a constant that is neither LF nor CR (side condition by [reflexivity]) *)
Lemma b1_eqb_blind k : ((k =? 10) || (k =? 13))%N = false -> bblind (fun c => (c =? k)%N).
Proof. exact (sees_eqb_blind b1 b1_sees k). Qed.
Lemma b1_eq_lf_false c : (b1 c =? 10)%N = false.
Proof. apply N.eqb_neq. apply b1_not_lf. Qed.
Lemma b1_eq_cr c : c <> 13%N -> (b1 c =? 13)%N = (c =? 10)%N.
Proof.
  intros H. unfold b1. destruct (N.eqb_spec c 10) as [->|_]; [reflexivity|]. apply N.eqb_neq. exact H.
Qed.

(* 2. The relations *)
Definition rm (s : bst) : list chr := si_chars (sc_in s).         (* remaining characters *)
Definition rn (s : bst) (i : nat) : chr := nth i (rm s) 0%N.        (* the i-th of them, NUL beyond the end *)
Definition lk (s : bst) : nat := si_look (sc_in s).                 (* the string input's lookahead counter *)

(* inputs: side 2 holds the image of side 1's remaining text; side 1 is CR-free; the lookahead counters (only
   observable through [buf_is_empty] and the [assert_buflen] panics) are equal: both sides run the same [look n] *)
Record IR (md : mode) (i1 i2 : strin) : Prop := {
  ir_chars : si_chars i2 = img md (si_chars i1);
  ir_nocr : nocr (si_chars i1);
  ir_look : si_look i2 = si_look i1 }.

(* markers: same line, same column; the index is not observable *)
Definition MR (m1 m2 : marker) : Prop := m_line m1 = m_line m2 /\ m_col m1 = m_col m2.
Definition SPR (a b : span) : Prop := MR (sp_start a) (sp_start b) /\ MR (sp_end a) (sp_end b).
Definition TR (t1 t2 : token) : Prop := SPR (fst t1) (fst t2) /\ snd t1 = snd t2.

(* simple keys: everything equal up to [MR]; the marker of a POSSIBLE key is never below the current line, and one
   that is ON the current line has the same index shift (index on side 2 - index on side 1) as the current mark -
   so the 1024-character distance of [stale_simple_keys], which is only looked at for a possible key on the
   current line, is the same on both sides.  (Keys that are not possible - e.g. the placeholder 0:0:0 of a new
   flow level - carry no index information.)  [c1 c2] = the current marks. *)
Record KR (c1 c2 : marker) (k1 k2 : simple_key) : Prop := {
  kr_possible : sk_possible k1 = sk_possible k2;
  kr_required : sk_required k1 = sk_required k2;
  kr_number : sk_token_number k1 = sk_token_number k2;
  kr_mark : MR (sk_mark k1) (sk_mark k2);
  kr_line : sk_possible k1 = true -> (m_line (sk_mark k1) <= m_line c1)%N;
  kr_shift : sk_possible k1 = true -> m_line (sk_mark k1) = m_line c1 ->
             (m_index (sk_mark k2) + m_index c1 = m_index (sk_mark k1) + m_index c2)%N }.

(* adjacent_value_allowed_at is only ever compared for equality with the current index *)
Definition ADJ (a1 i1 a2 i2 : N) : Prop := (a1 <= i1 /\ a2 <= i2 /\ (a1 = i1 <-> a2 = i2))%N.

(* the fields that are plainly equal *)
Definition skel (s : bst) :=
  (sc_stream_start s, sc_stream_end s, sc_ska s, sc_indent s, sc_indents s, sc_flow_level s, sc_tokens_parsed s,
   sc_token_available s, sc_lws s, sc_ifms s).

(* THE STATE RELATION *)
Record BR (md : mode) (s1 s2 : bst) : Prop := {
  br_in : IR md (sc_in s1) (sc_in s2);
  br_mark : MR (sc_mark s1) (sc_mark s2);
  br_tokens : Forall2 TR (sc_tokens s1) (sc_tokens s2);
  br_sks : Forall2 (KR (sc_mark s1) (sc_mark s2)) (sc_sks s1) (sc_sks s2);
  br_adj : ADJ (sc_adjacent s1) (m_index (sc_mark s1)) (sc_adjacent s2) (m_index (sc_mark s2));
  br_skel : skel s1 = skel s2 }.
Arguments br_in {md s1 s2}. Arguments br_mark {md s1 s2}. Arguments br_tokens {md s1 s2}.
Arguments br_sks {md s1 s2}. Arguments br_adj {md s1 s2}. Arguments br_skel {md s1 s2}.
Arguments ir_chars {md i1 i2}. Arguments ir_nocr {md i1 i2}. Arguments ir_look {md i1 i2}.
Arguments kr_possible {c1 c2 k1 k2}. Arguments kr_required {c1 c2 k1 k2}. Arguments kr_number {c1 c2 k1 k2}.
Arguments kr_mark {c1 c2 k1 k2}. Arguments kr_line {c1 c2 k1 k2}. Arguments kr_shift {c1 c2 k1 k2}.

(* everything but the input (frame conditions of the input primitives: [ers t = ers s]) *)
Definition ers {I} (s : sc I) : sc unit :=
  {| sc_in := tt; sc_mark := sc_mark s; sc_tokens := sc_tokens s;
     sc_stream_start := sc_stream_start s; sc_stream_end := sc_stream_end s; sc_adjacent := sc_adjacent s;
     sc_ska := sc_ska s; sc_sks := sc_sks s; sc_indent := sc_indent s; sc_indents := sc_indents s;
     sc_flow_level := sc_flow_level s; sc_tokens_parsed := sc_tokens_parsed s;
     sc_token_available := sc_token_available s; sc_lws := sc_lws s; sc_ifms := sc_ifms s |}.
Lemma ers_set_in {I} (i : I) (s : sc I) : ers (set_in i s) = ers s.
Proof. reflexivity. Qed.
Lemma ers_fields {I J} (s : sc I) (t : sc J) : ers s = ers t ->
  sc_mark s = sc_mark t /\ sc_tokens s = sc_tokens t /\ sc_stream_start s = sc_stream_start t
  /\ sc_stream_end s = sc_stream_end t /\ sc_adjacent s = sc_adjacent t /\ sc_ska s = sc_ska t
  /\ sc_sks s = sc_sks t /\ sc_indent s = sc_indent t /\ sc_indents s = sc_indents t
  /\ sc_flow_level s = sc_flow_level t /\ sc_tokens_parsed s = sc_tokens_parsed t
  /\ sc_token_available s = sc_token_available t /\ sc_lws s = sc_lws t
  /\ sc_ifms s = sc_ifms t.
Proof. exact (ScanLock.ers_fields s t). Qed.

(* markers *)
Lemma MR_refl m : MR m m.
Proof. split; reflexivity. Qed.
Lemma MR_adv n m1 m2 : MR m1 m2 -> MR (adv n m1) (adv n m2).
Proof. intros [L C]. split; cbn [adv m_line m_col]; congruence. Qed.
Lemma MR_nlm m1 m2 : MR m1 m2 -> MR (nlm m1) (nlm m2).
Proof. intros [L C]. split; cbn [nlm m_line m_col]; congruence. Qed.
Lemma MR_nlm_adv n m1 m2 : MR m1 m2 -> MR (nlm m1) (nlm (adv n m2)).
Proof. intros [L C]. split; cbn [nlm adv m_line m_col]; congruence. Qed.

(* how the mark may move: [mark_step c1 c2 m1 m2] (old marks c, new marks m) keeps [KR] and [ADJ] *)
Definition mark_step (c1 c2 m1 m2 : marker) : Prop :=
  MR m1 m2 /\ (m_line c1 <= m_line m1)%N /\ (m_index c1 <= m_index m1)%N /\ (m_index c2 <= m_index m2)%N
  /\ (m_index m1 = m_index c1 <-> m_index m2 = m_index c2)
  /\ (m_line m1 = m_line c1 -> (m_index m2 + m_index c1 = m_index m1 + m_index c2)%N).
Lemma mark_step_refl c1 c2 : MR c1 c2 -> mark_step c1 c2 c1 c2.
Proof. intros [L C]. unfold mark_step, MR. repeat split; intros; auto; lia. Qed.
(* n characters of the same line, the same n on both sides *)
Lemma mark_step_adv n c1 c2 : MR c1 c2 -> mark_step c1 c2 (adv n c1) (adv n c2).
Proof. intros H. unfold mark_step. split; [apply MR_adv; exact H|]. cbn [adv m_index m_line m_col]. repeat split; intros; lia. Qed.
(* a line break: one character on side 1, k characters (k >= 1) on side 2 *)
Lemma mark_step_nl k c1 c2 : MR c1 c2 -> mark_step c1 c2 (nlm c1) (nlm (adv k c2)).
Proof.
  intros H. unfold mark_step. split; [apply MR_nlm_adv; exact H|]. cbn [adv nlm m_index m_line m_col]. repeat split; intros; lia.
Qed.
Lemma mark_step_nl0 c1 c2 : MR c1 c2 -> mark_step c1 c2 (nlm c1) (nlm c2).
Proof.
  intros H. unfold mark_step. split; [apply MR_nlm; exact H|]. cbn [nlm m_index m_line m_col]. repeat split; intros; lia.
Qed.
(* fetch_stream_end: a new line without consuming anything *)
Lemma mark_step_eol c1 c2 : MR c1 c2 ->
  mark_step c1 c2 {| m_index := m_index c1; m_line := m_line c1 + 1; m_col := 0 |}
                  {| m_index := m_index c2; m_line := m_line c2 + 1; m_col := 0 |}.
Proof.
  intros [L C]. unfold mark_step, MR. cbn [m_index m_line m_col]. repeat split; intros; lia.
Qed.
Lemma KR_step c1 c2 m1 m2 k1 k2 : mark_step c1 c2 m1 m2 -> KR c1 c2 k1 k2 -> KR m1 m2 k1 k2.
Proof.
  intros (HM & HL & H1 & H2 & HE & HS) [P R N' M L S]. split; try assumption.
  - intros EP. specialize (L EP). lia.
  - intros EP E. specialize (L EP). assert (E1 : m_line m1 = m_line c1) by lia.
    assert (E2 : m_line (sk_mark k1) = m_line c1) by lia.
    specialize (S EP E2). specialize (HS E1). lia.
Qed.
Lemma KRs_step c1 c2 m1 m2 l1 l2 : mark_step c1 c2 m1 m2 -> Forall2 (KR c1 c2) l1 l2 -> Forall2 (KR m1 m2) l1 l2.
Proof. intros H HF. induction HF; constructor; [eapply KR_step; eassumption|assumption]. Qed.
Lemma ADJ_step c1 c2 m1 m2 a1 a2 : mark_step c1 c2 m1 m2 ->
  ADJ a1 (m_index c1) a2 (m_index c2) -> ADJ a1 (m_index m1) a2 (m_index m2).
Proof. intros (HM & HL & H1 & H2 & HE & HS) (A1 & A2 & AE). unfold ADJ. lia. Qed.
Lemma ADJ_here i1 i2 : ADJ i1 i1 i2 i2.
Proof. unfold ADJ. lia. Qed.
(* a key saved at the current mark *)
Lemma KR_here c1 c2 p r n : MR c1 c2 ->
  KR c1 c2 {| sk_possible := p; sk_required := r; sk_token_number := n; sk_mark := c1 |}
           {| sk_possible := p; sk_required := r; sk_token_number := n; sk_mark := c2 |}.
Proof. intros H. split; cbn [sk_possible sk_required sk_token_number sk_mark]; auto; intros; lia. Qed.
(* a key that is not possible: only [MR] of the markers matters (placeholder 0:0:0 of a new flow level, a removed key) *)
Lemma KR_dead c1 c2 r n m1 m2 : MR m1 m2 ->
  KR c1 c2 {| sk_possible := false; sk_required := r; sk_token_number := n; sk_mark := m1 |}
           {| sk_possible := false; sk_required := r; sk_token_number := n; sk_mark := m2 |}.
Proof. intros H. split; cbn [sk_possible sk_required sk_token_number sk_mark]; auto; intros; discriminate. Qed.
Lemma KR_kill c1 c2 k1 k2 : KR c1 c2 k1 k2 ->
  KR c1 c2 {| sk_possible := false; sk_required := sk_required k1; sk_token_number := sk_token_number k1; sk_mark := sk_mark k1 |}
           {| sk_possible := false; sk_required := sk_required k2; sk_token_number := sk_token_number k2; sk_mark := sk_mark k2 |}.
Proof.
  intros [P R N' M L S]. split; cbn [sk_possible sk_required sk_token_number sk_mark]; auto; intros; discriminate.
Qed.

(* 3. Reading the state relation *)
Lemma skel_fields (s t : bst) : skel s = skel t ->
  sc_stream_start s = sc_stream_start t /\ sc_stream_end s = sc_stream_end t /\ sc_ska s = sc_ska t
  /\ sc_indent s = sc_indent t /\ sc_indents s = sc_indents t /\ sc_flow_level s = sc_flow_level t
  /\ sc_tokens_parsed s = sc_tokens_parsed t /\ sc_token_available s = sc_token_available t
  /\ sc_lws s = sc_lws t /\ sc_ifms s = sc_ifms t.
Proof. unfold skel. intros H. inversion H. repeat split; assumption. Qed.

Section Read.
Context {md : mode} {s1 s2 : bst} (H : BR md s1 s2).
Lemma BR_line : m_line (sc_mark s1) = m_line (sc_mark s2). Proof. exact (proj1 (br_mark H)). Qed.
Lemma BR_col : m_col (sc_mark s1) = m_col (sc_mark s2). Proof. exact (proj2 (br_mark H)). Qed.
Lemma BR_stream_start : sc_stream_start s1 = sc_stream_start s2. Proof. pose proof (skel_fields _ _ (br_skel H)). tauto. Qed.
Lemma BR_stream_end : sc_stream_end s1 = sc_stream_end s2. Proof. pose proof (skel_fields _ _ (br_skel H)). tauto. Qed.
Lemma BR_ska : sc_ska s1 = sc_ska s2. Proof. pose proof (skel_fields _ _ (br_skel H)). tauto. Qed.
Lemma BR_indent : sc_indent s1 = sc_indent s2. Proof. pose proof (skel_fields _ _ (br_skel H)). tauto. Qed.
Lemma BR_indents : sc_indents s1 = sc_indents s2. Proof. pose proof (skel_fields _ _ (br_skel H)). tauto. Qed.
Lemma BR_flow_level : sc_flow_level s1 = sc_flow_level s2. Proof. pose proof (skel_fields _ _ (br_skel H)). tauto. Qed.
Lemma BR_tokens_parsed : sc_tokens_parsed s1 = sc_tokens_parsed s2. Proof. pose proof (skel_fields _ _ (br_skel H)). tauto. Qed.
Lemma BR_token_available : sc_token_available s1 = sc_token_available s2. Proof. pose proof (skel_fields _ _ (br_skel H)). tauto. Qed.
Lemma BR_lws : sc_lws s1 = sc_lws s2. Proof. pose proof (skel_fields _ _ (br_skel H)). tauto. Qed.
Lemma BR_ifms : sc_ifms s1 = sc_ifms s2. Proof. pose proof (skel_fields _ _ (br_skel H)). tauto. Qed.
(* adjacent_value_allowed_at = the current index: the same answer on both sides (fetch_next_token, fetch_flow_value) *)
Lemma BR_adj_eqb : (m_index (sc_mark s2) =? sc_adjacent s2)%N = (m_index (sc_mark s1) =? sc_adjacent s1)%N.
Proof.
  destruct (br_adj H) as (A1 & A2 & AE).
  destruct (N.eqb_spec (m_index (sc_mark s2)) (sc_adjacent s2)) as [E2|N2];
    destruct (N.eqb_spec (m_index (sc_mark s1)) (sc_adjacent s1)) as [E1|N1]; try reflexivity; exfalso.
  - apply N1. symmetry. apply AE. symmetry. exact E2.
  - apply N2. symmetry. apply AE. symmetry. exact E1.
Qed.
Lemma BR_tokens_len : length (sc_tokens s1) = length (sc_tokens s2). Proof. exact (F2_length _ _ _ (br_tokens H)). Qed.
(* the inputs *)
Lemma BR_rm : rm s2 = img md (rm s1). Proof. exact (ir_chars (br_in H)). Qed.
Lemma BR_nocr : nocr (rm s1). Proof. exact (ir_nocr (br_in H)). Qed.
Lemma BR_lk : lk s2 = lk s1. Proof. exact (ir_look (br_in H)). Qed.
Lemma BR_rn_nocr k : rn s1 k <> 13%N. Proof. apply nocr_nth. exact BR_nocr. Qed.
(* the character at an aligned position of side 2 *)
Lemma BR_rn k : noLF k (rm s1) -> rn s2 k = b1 (rn s1 k).
Proof. intros HL. unfold rn. rewrite BR_rm. apply nth_img. exact HL. Qed.
Lemma BR_rn0 : rn s2 0 = b1 (rn s1 0). Proof. apply BR_rn. apply noLF_0. Qed.
(* a line feed on side 1 is seen as CR on side 2, and nothing else is *)
Lemma BR_rn0_cr : (rn s2 0 =? 13)%N = (rn s1 0 =? 10)%N.
Proof. rewrite BR_rn0. apply b1_eq_cr. apply BR_rn_nocr. Qed.
Lemma BR_rn0_lf : (rn s2 0 =? 10)%N = false.
Proof. rewrite BR_rn0. apply b1_eq_lf_false. Qed.
Lemma BR_rn0_other : rn s1 0 <> 10%N -> rn s2 0 = rn s1 0.
Proof. intros H0. rewrite BR_rn0. apply b1_other. exact H0. Qed.
End Read.

(* [br_fwd H]: H : BR md s1 s2; every equal-valued field of s1 in the goal (line and column of the mark included)
   becomes the field of s2 *)
Ltac br_fwd H :=
  rewrite ?(BR_line H), ?(BR_col H), ?(BR_stream_start H), ?(BR_stream_end H), ?(BR_ska H),
          ?(BR_indent H), ?(BR_indents H), ?(BR_flow_level H), ?(BR_tokens_parsed H),
          ?(BR_token_available H), ?(BR_lws H), ?(BR_ifms H), ?(BR_tokens_len H).
Ltac skel_eq H := unfold skel; skel_cbn; br_fwd H; reflexivity.

(* 4. The state relation under updates *)
Section Upd.
Variable md : mode.

Lemma BR_set_in i1 i2 s1 s2 : BR md s1 s2 -> IR md i1 i2 -> BR md (set_in i1 s1) (set_in i2 s2).
Proof. intros H HI. constructor; skel_cbn; try apply H. exact HI. Qed.
Lemma BR_set_mark m1 m2 s1 s2 : BR md s1 s2 -> mark_step (sc_mark s1) (sc_mark s2) m1 m2 ->
  BR md (set_mark m1 s1) (set_mark m2 s2).
Proof.
  intros H HM. constructor; skel_cbn; try apply H.
  - exact (proj1 HM).
  - eapply KRs_step; [exact HM|apply H].
  - eapply ADJ_step; [exact HM|apply H].
Qed.
Lemma BR_set_tokens l1 l2 s1 s2 : BR md s1 s2 -> Forall2 TR l1 l2 -> BR md (set_tokens l1 s1) (set_tokens l2 s2).
Proof. intros H HL. constructor; skel_cbn; try apply H. exact HL. Qed.
Lemma BR_set_sks l1 l2 s1 s2 : BR md s1 s2 -> Forall2 (KR (sc_mark s1) (sc_mark s2)) l1 l2 ->
  BR md (set_sks l1 s1) (set_sks l2 s2).
Proof. intros H HL. constructor; skel_cbn; try apply H; try exact HL; skel_eq H. Qed.
Lemma BR_set_ska b s1 s2 : BR md s1 s2 -> BR md (set_ska b s1) (set_ska b s2).
Proof. intros H. constructor; skel_cbn; try apply H. skel_eq H. Qed.
Lemma BR_set_lws b s1 s2 : BR md s1 s2 -> BR md (set_lws b s1) (set_lws b s2).
Proof. intros H. constructor; skel_cbn; try apply H. skel_eq H. Qed.
Lemma BR_set_ta b s1 s2 : BR md s1 s2 -> BR md (set_ta b s1) (set_ta b s2).
Proof. intros H. constructor; skel_cbn; try apply H. skel_eq H. Qed.
Lemma BR_set_ss b s1 s2 : BR md s1 s2 -> BR md (set_ss b s1) (set_ss b s2).
Proof. intros H. constructor; skel_cbn; try apply H. skel_eq H. Qed.
Lemma BR_set_se b s1 s2 : BR md s1 s2 -> BR md (set_se b s1) (set_se b s2).
Proof. intros H. constructor; skel_cbn; try apply H. skel_eq H. Qed.
(* adjacent_value_allowed_at := the current index (the only value it is ever given) *)
Lemma BR_set_adj_here s1 s2 : BR md s1 s2 ->
  BR md (set_adj (m_index (sc_mark s1)) s1) (set_adj (m_index (sc_mark s2)) s2).
Proof. intros H. constructor; skel_cbn; try apply H; try apply ADJ_here; skel_eq H. Qed.
Lemma BR_set_indent z l s1 s2 : BR md s1 s2 -> BR md (set_indent z l s1) (set_indent z l s2).
Proof. intros H. constructor; skel_cbn; try apply H. skel_eq H. Qed.
Lemma BR_set_fl n s1 s2 : BR md s1 s2 -> BR md (set_fl n s1) (set_fl n s2).
Proof. intros H. constructor; skel_cbn; try apply H. skel_eq H. Qed.
Lemma BR_set_tp n s1 s2 : BR md s1 s2 -> BR md (set_tp n s1) (set_tp n s2).
Proof. intros H. constructor; skel_cbn; try apply H. skel_eq H. Qed.
Lemma BR_set_ifms l s1 s2 : BR md s1 s2 -> BR md (set_ifms l s1) (set_ifms l s2).
Proof. intros H. constructor; skel_cbn; try apply H. skel_eq H. Qed.

(* the initial states *)
Lemma BR_init x : nocr x ->
  BR md (init_sc {| si_chars := x; si_look := 0 |}) (init_sc {| si_chars := img md x; si_look := 0 |}).
Proof.
  intros Hx. constructor; cbn [init_sc sc_in sc_mark sc_tokens sc_sks sc_adjacent].
  - constructor; cbn [si_chars si_look]; auto.
  - apply MR_refl.
  - constructor.
  - constructor.
  - apply ADJ_here.
  - reflexivity.
Qed.
End Upd.

(* 5. The relational calculus *)
Definition bwp {A1 A2} (m1 : BM A1) (m2 : BM A2) (Q : A1 -> bst -> A2 -> bst -> Prop) (s1 s2 : bst) : Prop :=
  match m1 s1 with
  | Panic _ => True
  | OutOfFuel => True
  | Ok (a1, t1) => match m2 s2 with
                   | Ok (a2, t2) => Q a1 t1 a2 t2
                   | Err _ _ => False
                   | _ => True
                   end
  | Err e1 k1 => match m2 s2 with
                 | Err e2 k2 => e1 = e2 /\ MR k1 k2
                 | Ok _ => False
                 | _ => True
                 end
  end.

(* the usual shape of a postcondition: equal values *)
Definition Qe {A} (P : A -> bst -> bst -> Prop) : A -> bst -> A -> bst -> Prop :=
  fun a1 t1 a2 t2 => a1 = a2 /\ P a1 t1 t2.

(* equal-valued bind: the continuation is the same function on both sides *)
Lemma bwp_bind_e {A B1 B2} (m1 m2 : BM A) (f1 : A -> BM B1) (f2 : A -> BM B2) (Q : B1 -> bst -> B2 -> bst -> Prop) s1 s2 :
  bwp m1 m2 (Qe (fun a t1 t2 => bwp (f1 a) (f2 a) Q t1 t2)) s1 s2 -> bwp (bind m1 f1) (bind m2 f2) Q s1 s2.
Proof. exact (lwp_bind_e MR m1 m2 f1 f2 Q s1 s2). Qed.
Lemma bwp_oof_l {A1 A2} (m2 : BM A2) (Q : A1 -> bst -> A2 -> bst -> Prop) s1 s2 : bwp (@oof strin A1) m2 Q s1 s2.
Proof. exact I. Qed.
Lemma bwp_panic_r {A1 A2} site (m1 : BM A1) (Q : A1 -> bst -> A2 -> bst -> Prop) s1 s2 : bwp m1 (@panic strin A2 site) Q s1 s2.
Proof. exact (lwp_panic_r MR site m1 Q s1 s2). Qed.

(* unfolding: what a related pair of proper results means *)
Lemma bwp_elim {A1 A2} (m1 : BM A1) (m2 : BM A2) (Q : A1 -> bst -> A2 -> bst -> Prop) s1 s2 : bwp m1 m2 Q s1 s2 ->
  match m1 s1, m2 s2 with
  | Ok (a1, t1), Ok (a2, t2) => Q a1 t1 a2 t2
  | Err e1 k1, Err e2 k2 => e1 = e2 /\ MR k1 k2
  | Ok _, Err _ _ => False
  | Err _ _, Ok _ => False
  | _, _ => True
  end.
Proof. exact (lwp_elim MR m1 m2 Q s1 s2). Qed.
Lemma bwp_intro {A1 A2} (m1 : BM A1) (m2 : BM A2) (Q : A1 -> bst -> A2 -> bst -> Prop) s1 s2 :
  match m1 s1, m2 s2 with
  | Ok (a1, t1), Ok (a2, t2) => Q a1 t1 a2 t2
  | Err e1 k1, Err e2 k2 => e1 = e2 /\ MR k1 k2
  | Ok _, Err _ _ => False
  | Err _ _, Ok _ => False
  | _, _ => True
  end -> bwp m1 m2 Q s1 s2.
Proof. exact (lwp_intro MR m1 m2 Q s1 s2). Qed.

(* ---- one-sided steps (a line break is one character on side 1 and two on side 2 in CRLF mode; loops whose
        iterations are not in lockstep).  [bwp] does not require the same fuel or the same function on both sides. ---- *)
Lemma bwp_step_l {A B1 B2} (m : BM A) (f1 : A -> BM B1) (m2 : BM B2) (Q : B1 -> bst -> B2 -> bst -> Prop) s1 s2 a t1 :
  m s1 = Ok (a, t1) -> bwp (f1 a) m2 Q t1 s2 -> bwp (bind m f1) m2 Q s1 s2.
Proof. exact (lwp_step_l MR m f1 m2 Q s1 s2 a t1). Qed.
Lemma bwp_step_r {A B1 B2} (m : BM A) (m1 : BM B1) (f2 : A -> BM B2) (Q : B1 -> bst -> B2 -> bst -> Prop) s1 s2 a t2 :
  m s2 = Ok (a, t2) -> bwp m1 (f2 a) Q s1 t2 -> bwp m1 (bind m f2) Q s1 s2.
Proof. exact (lwp_step_r MR m m1 f2 Q s1 s2 a t2). Qed.
(* both sides evaluated *)
Lemma bwp_eval {A1 A2} (m1 : BM A1) (m2 : BM A2) (Q : A1 -> bst -> A2 -> bst -> Prop) s1 s2 a1 t1 a2 t2 :
  m1 s1 = Ok (a1, t1) -> m2 s2 = Ok (a2, t2) -> Q a1 t1 a2 t2 -> bwp m1 m2 Q s1 s2.
Proof. exact (lwp_eval MR m1 m2 Q s1 s2 a1 t1 a2 t2). Qed.
Lemma bwp_bind_eval {A1 A2 B1 B2} (m1 : BM A1) (m2 : BM A2) (f1 : A1 -> BM B1) (f2 : A2 -> BM B2)
  (Q : B1 -> bst -> B2 -> bst -> Prop) s1 s2 a1 t1 a2 t2 :
  m1 s1 = Ok (a1, t1) -> m2 s2 = Ok (a2, t2) -> bwp (f1 a1) (f2 a2) Q t1 t2 -> bwp (bind m1 f1) (bind m2 f2) Q s1 s2.
Proof. exact (lwp_bind_eval MR m1 m2 f1 f2 Q s1 s2 a1 t1 a2 t2). Qed.

(* 6. Closed forms of the string back-end's primitives (for one-sided steps and for the rules below) *)
Definition bump (n : nat) (s : bst) : bst := set_in {| si_chars := rm s; si_look := Nat.max (lk s) n |} s.
Definition drop1 (s : bst) : bst := set_in {| si_chars := tl (rm s); si_look := lk s |} s.
Definition dropn (n : nat) (s : bst) : bst := set_in {| si_chars := skipn n (rm s); si_look := lk s |} s.
(* the result of skip_blank / skip_non_blank / skip_nl *)
Definition bl1 (s : bst) : bst := set_mark (adv 1 (sc_mark s)) (drop1 s).
Definition nb1 (s : bst) : bst := set_lws false (bl1 s).
Definition nl1 (s : bst) : bst := set_lws true (set_mark (nlm (sc_mark s)) (drop1 s)).

Lemma peekn_ok k s : peekn sops k s = Ok (rn s k, s). Proof. reflexivity. Qed.
Lemma peek_ok s : SPrim.peek sops s = Ok (rn s 0, s). Proof. reflexivity. Qed.
Lemma look_ch_ok s : look_ch sops s = Ok (rn s 0, bump 1 s). Proof. reflexivity. Qed.
Lemma skip_nl_ok s : skip_nl sops s = Ok (tt, nl1 s). Proof. reflexivity. Qed.
Lemma adv_mark_ok n (s : bst) : adv_mark n s = Ok (tt, set_mark (adv n (sc_mark s)) s). Proof. reflexivity. Qed.

Lemma rm_bump n s : rm (bump n s) = rm s. Proof. reflexivity. Qed.
Lemma rm_drop1 s : rm (drop1 s) = tl (rm s). Proof. reflexivity. Qed.
Lemma rm_dropn n s : rm (dropn n s) = skipn n (rm s). Proof. reflexivity. Qed.
Lemma rm_bl1 s : rm (bl1 s) = tl (rm s). Proof. reflexivity. Qed.
Lemma rm_nb1 s : rm (nb1 s) = tl (rm s). Proof. reflexivity. Qed.
Lemma rm_nl1 s : rm (nl1 s) = tl (rm s). Proof. reflexivity. Qed.
Lemma ers_bump n s : ers (bump n s) = ers s. Proof. reflexivity. Qed.
Lemma ers_drop1 s : ers (drop1 s) = ers s. Proof. reflexivity. Qed.
Lemma ers_dropn n s : ers (dropn n s) = ers s. Proof. reflexivity. Qed.

(* skip_linebreak / skip_break, evaluated *)
Lemma skip_linebreak_eval s : skip_linebreak sops s =
  if Nat.ltb (lk s) 2 then Panic 103%N
  else if ((rn s 0 =? 13) && (rn s 1 =? 10))%N then Ok (tt, nl1 (bl1 s))
  else if is_break (rn s 0) then Ok (tt, nl1 s) else Ok (tt, s).
Proof.
  unfold skip_linebreak, next_2_are, assert_buflen, bind. cbn [buflen str_ops]. fold (lk s).
  destruct (Nat.ltb (lk s) 2); [reflexivity|].
  rewrite peek_ok, peekn_ok. unfold ret.
  destruct ((rn s 0 =? 13) && (rn s 1 =? 10))%N; [reflexivity|].
  rewrite peek_ok. destruct (is_break (rn s 0)); reflexivity.
Qed.
Lemma skip_break_eval s : skip_break sops s =
  if is_break (rn s 0) then
    (if ((rn s 0 =? 13) && (rn s 1 =? 10))%N then Ok (tt, nl1 (bl1 s)) else Ok (tt, nl1 s))
  else Panic 110%N.
Proof.
  unfold skip_break, bind. rewrite peek_ok, peekn_ok.
  destruct (is_break (rn s 0)); [|reflexivity]. unfold ret.
  destruct ((rn s 0 =? 13) && (rn s 1 =? 10))%N; reflexivity.
Qed.

(* 7. The input primitives under the relation *)
Lemma rn0_lf s : rn s 0 = 10%N -> exists r, rm s = 10%N :: r.
Proof. unfold rn. destruct (rm s) as [|c r]; cbn [nth]; [discriminate|]. intros ->. exists r. reflexivity. Qed.
Lemma rn0_cons s c r : rm s = c :: r -> rn s 0 = c.
Proof. unfold rn. intros ->. reflexivity. Qed.

(* what side 2 does at a line break: CR LF is a skip_blank followed by a skip_nl, a lone CR is a skip_nl *)
Definition brk_nl (md : mode) (s : bst) : bst := match md with CRLF => nl1 (bl1 s) | CR => nl1 s end.
Definition skip_brk (md : mode) : BM unit :=
  match md with CRLF => bind (skip_blank sops) (fun _ => skip_nl sops) | CR => skip_nl sops end.
Lemma skip_brk_ok md s : skip_brk md s = Ok (tt, brk_nl md s).
Proof. destruct md; reflexivity. Qed.

(* the two sides jump to new inputs and new marks *)
Lemma BR_jump md s1 s2 i1 i2 m1 m2 : BR md s1 s2 -> IR md i1 i2 -> mark_step (sc_mark s1) (sc_mark s2) m1 m2 ->
  BR md (set_mark m1 (set_in i1 s1)) (set_mark m2 (set_in i2 s2)).
Proof. intros H HI HM. apply BR_set_mark; [apply BR_set_in; assumption|exact HM]. Qed.
(* THE LINE BREAK: side 1 consumes the LF, side 2 the CR LF / the CR; both are at column 0 of the next line *)
Lemma BR_break md s1 s2 : BR md s1 s2 -> rn s1 0 = 10%N -> BR md (nl1 s1) (brk_nl md s2).
Proof.
  intros H H0. destruct (rn0_lf _ H0) as [r Er].
  assert (E2 : rm s2 = brk md ++ img md r) by (rewrite (BR_rm H), Er; apply img_lf).
  assert (Hr : nocr r) by (pose proof (BR_nocr H) as HN; rewrite Er in HN; inversion HN; assumption).
  destruct md; unfold brk_nl.
  - change (nl1 (bl1 s2)) with
      (set_lws true (set_mark (nlm (adv 1 (sc_mark s2))) (set_in {| si_chars := tl (tl (rm s2)); si_look := lk s2 |} s2))).
    unfold nl1, drop1. apply BR_set_lws. apply BR_jump; [exact H| |apply mark_step_nl; exact (br_mark H)].
    constructor; cbn [si_chars si_look]; [rewrite E2, Er; reflexivity|rewrite Er; exact Hr|exact (BR_lk H)].
  - unfold nl1, drop1. apply BR_set_lws. apply BR_jump; [exact H| |apply mark_step_nl0; exact (br_mark H)].
    constructor; cbn [si_chars si_look]; [rewrite E2, Er; reflexivity|rewrite Er; exact Hr|exact (BR_lk H)].
Qed.
(* what side 2 sees at a line break of side 1 *)
Lemma BR_at_break md s1 s2 : BR md s1 s2 -> rn s1 0 = 10%N ->
  rn s2 0 = 13%N /\ (rn s2 1 =? 10)%N = match md with CRLF => true | CR => false end.
Proof.
  intros H H0. destruct (rn0_lf _ H0) as [r Er].
  assert (E2 : rm s2 = brk md ++ img md r) by (rewrite (BR_rm H), Er; apply img_lf).
  unfold rn. rewrite E2. destruct md; cbn [brk app nth]; split; try reflexivity.
  rewrite (nth_img CR 0 r (noLF_0 r)). apply b1_eq_lf_false.
Qed.

(* skip_linebreak / skip_break at a line break of side 1, both sides evaluated *)
Lemma skip_linebreak_at_break md s1 s2 : BR md s1 s2 -> rn s1 0 = 10%N -> Nat.ltb (lk s1) 2 = false ->
  skip_linebreak sops s1 = Ok (tt, nl1 s1) /\ skip_linebreak sops s2 = Ok (tt, brk_nl md s2).
Proof.
  intros H E0 HL. rewrite !skip_linebreak_eval. rewrite (BR_lk H), HL.
  destruct (BR_at_break _ _ _ H E0) as [E20 E21]. rewrite E0, E20, E21. split; [reflexivity|].
  destruct md; reflexivity.
Qed.
Lemma skip_break_at_break md s1 s2 : BR md s1 s2 -> rn s1 0 = 10%N ->
  skip_break sops s1 = Ok (tt, nl1 s1) /\ skip_break sops s2 = Ok (tt, brk_nl md s2).
Proof.
  intros H E0. rewrite !skip_break_eval.
  destruct (BR_at_break _ _ _ H E0) as [E20 E21]. rewrite E0, E20, E21. split; [reflexivity|].
  destruct md; reflexivity.
Qed.
(* ... and where side 1 has no line break, side 2 has none either *)
Lemma BR_not_break md s1 s2 : BR md s1 s2 -> rn s1 0 <> 10%N -> is_break (rn s1 0) = false /\ is_break (rn s2 0) = false.
Proof.
  intros H N0. pose proof (BR_rn_nocr H 0) as Hcr. rewrite (BR_rn0_other H N0).
  unfold is_break. apply N.eqb_neq in N0, Hcr. rewrite N0, Hcr. split; reflexivity.
Qed.

Section Rules.
Variable md : mode.

(* the state relation along the input primitives *)
Lemma BR_bump n s1 s2 : BR md s1 s2 -> BR md (bump n s1) (bump n s2).
Proof.
  intros H. unfold bump. apply BR_set_in; [exact H|].
  constructor; cbn [si_chars si_look]; [exact (BR_rm H)|exact (BR_nocr H)|rewrite (BR_lk H); reflexivity].
Qed.
Lemma BR_drop1 s1 s2 : BR md s1 s2 -> rn s1 0 <> 10%N -> BR md (drop1 s1) (drop1 s2).
Proof.
  intros H H0. unfold drop1. apply BR_set_in; [exact H|]. constructor; cbn [si_chars si_look].
  - rewrite (BR_rm H). apply tl_img. exact H0.
  - apply nocr_tl. exact (BR_nocr H).
  - exact (BR_lk H).
Qed.
Lemma BR_dropn n s1 s2 : BR md s1 s2 -> noLF n (rm s1) -> BR md (dropn n s1) (dropn n s2).
Proof.
  intros H H0. unfold dropn. apply BR_set_in; [exact H|]. constructor; cbn [si_chars si_look].
  - rewrite (BR_rm H). apply skipn_img. exact H0.
  - apply nocr_skipn. exact (BR_nocr H).
  - exact (BR_lk H).
Qed.
Lemma BR_adv n s1 s2 : BR md s1 s2 -> BR md (set_mark (adv n (sc_mark s1)) s1) (set_mark (adv n (sc_mark s2)) s2).
Proof. intros H. apply BR_set_mark; [exact H|]. apply mark_step_adv. exact (br_mark H). Qed.

(* the line break *)
(* skip_nl on side 1 against what side 2 does for its CR LF / CR *)
Lemma bwp_skip_nl (Q : unit -> bst -> unit -> bst -> Prop) s1 s2 :
  BR md s1 s2 -> rn s1 0 = 10%N ->
  (forall t1 t2, BR md t1 t2 -> rm t1 = tl (rm s1) -> Q tt t1 tt t2) -> bwp (skip_nl sops) (skip_brk md) Q s1 s2.
Proof.
  intros H H0 HQ. eapply bwp_eval; [apply skip_nl_ok|apply skip_brk_ok|].
  apply HQ; [apply BR_break; assumption|reflexivity].
Qed.
(* skip_linebreak: whatever the next character is *)
Lemma bwp_skip_linebreak (Q : unit -> bst -> unit -> bst -> Prop) s1 s2 :
  BR md s1 s2 ->
  (forall t1 t2, BR md t1 t2 -> rm t1 = (if (rn s1 0 =? 10)%N then tl (rm s1) else rm s1) -> Q tt t1 tt t2) ->
  bwp (skip_linebreak sops) (skip_linebreak sops) Q s1 s2.
Proof.
  intros H HQ. destruct (Nat.ltb (lk s1) 2) eqn:HL.
  { unfold bwp. rewrite skip_linebreak_eval, HL. exact I. }
  destruct (N.eqb_spec (rn s1 0) 10) as [E0|N0].
  - destruct (skip_linebreak_at_break md _ _ H E0 HL) as [R1 R2]. eapply bwp_eval; [exact R1|exact R2|].
    apply HQ; [apply BR_break; assumption|reflexivity].
  - destruct (BR_not_break md _ _ H N0) as [B1 B2]. pose proof (BR_rn_nocr H 0) as Hcr. apply N.eqb_neq in Hcr.
    unfold bwp. rewrite !skip_linebreak_eval. rewrite (BR_lk H), HL, B1, B2.
    rewrite (BR_rn0_other H N0), Hcr. cbn [andb]. apply HQ; [exact H|reflexivity].
Qed.
(* skip_break: the debug assertion (the next character is a break) fails on both sides or on none *)
Lemma bwp_skip_break (Q : unit -> bst -> unit -> bst -> Prop) s1 s2 :
  BR md s1 s2 ->
  (forall t1 t2, BR md t1 t2 -> rn s1 0 = 10%N -> rm t1 = tl (rm s1) -> Q tt t1 tt t2) ->
  bwp (skip_break sops) (skip_break sops) Q s1 s2.
Proof.
  intros H HQ. destruct (N.eqb_spec (rn s1 0) 10) as [E0|N0].
  - destruct (skip_break_at_break md _ _ H E0) as [R1 R2]. eapply bwp_eval; [exact R1|exact R2|].
    apply HQ; [apply BR_break; assumption|exact E0|reflexivity].
  - destruct (BR_not_break md _ _ H N0) as [B1 _]. unfold bwp. rewrite skip_break_eval, B1. exact I.
Qed.

(* raw_read / buf_is_empty / assert_buflen *)
Lemma bwp_raw_read (Q : option chr -> bst -> option chr -> bst -> Prop) s1 s2 :
  BR md s1 s2 ->
  (forall c t1 t2, BR md t1 t2 -> ers t1 = ers s1 -> ers t2 = ers s2 ->
     match c with
     | Some x => rm s1 = x :: rm t1 /\ is_breakz x = false
     | None => rm t1 = rm s1 /\ is_breakz (rn s1 0) = true
     end -> Q c t1 c t2) ->
  bwp (raw_read sops) (raw_read sops) Q s1 s2.
Proof.
  intros H HQ. unfold bwp, raw_read. cbn [raw_read_non_breakz str_ops].
  change (si_chars (sc_in s2)) with (rm s2). change (si_chars (sc_in s1)) with (rm s1). rewrite (BR_rm H).
  assert (HSame : BR md (set_in (sc_in s1) s1) (set_in (sc_in s2) s2)) by (apply BR_set_in; [exact H|exact (br_in H)]).
  pose proof (BR_nocr H) as HN.
  destruct (rm s1) as [|c r] eqn:E1.
  - rewrite img_nil. apply HQ; [exact HSame|reflexivity|reflexivity|]. split; [exact E1|]. unfold rn. rewrite E1. reflexivity.
  - destruct (N.eq_dec c 10) as [->|Hc].
    + rewrite img_lf. change (is_breakz 10) with true. cbv iota.
      assert (E2 : match brk md ++ img md r with [] => False | x :: _ => is_breakz x = true end) by (destruct md; reflexivity).
      destruct (brk md ++ img md r) as [|x r2]; [destruct E2|]. rewrite E2.
      apply HQ; [exact HSame|reflexivity|reflexivity|]. split; [exact E1|]. unfold rn. rewrite E1. reflexivity.
    + rewrite img_other by exact Hc. destruct (is_breakz c) eqn:Eb.
      * apply HQ; [exact HSame|reflexivity|reflexivity|]. split; [exact E1|]. unfold rn. rewrite E1. exact Eb.
      * apply HQ; [|reflexivity|reflexivity|split; [reflexivity|exact Eb]].
        apply BR_set_in; [exact H|]. constructor; cbn [si_chars si_look]; [reflexivity|inversion HN; assumption|exact (BR_lk H)].
Qed.
(* both sides pass the assertion or both panic *)
Lemma bwp_assert_buflen n site (Q : unit -> bst -> unit -> bst -> Prop) s1 s2 :
  BR md s1 s2 -> Q tt s1 tt s2 -> bwp (assert_buflen sops n site) (assert_buflen sops n site) Q s1 s2.
Proof.
  intros H HQ. unfold bwp, assert_buflen. cbn [buflen str_ops]. fold (lk s1). fold (lk s2). rewrite (BR_lk H).
  destruct (Nat.ltb (lk s1) n); [exact I|exact HQ].
Qed.

(* [BR md] is a lock: side 2 shows a line feed as CR, markers agree on line and column *)
Lemma brk_lock : lock b1 MR (BR md).
Proof.
  constructor.
  - exact b1_sees.
  - intros m1 m2 HM. exact (proj2 HM).
  - intros a1 a2 c1 c2 [LA _] [LC _]. rewrite LA, LC. reflexivity.
  - intros s1 s2 H. exact (br_mark H).
  - intros s1 s2 H. exact (br_tokens H).
  - intros s1 s2 H. unfold lskel. br_fwd H. reflexivity.
  - intros s1 s2 H k. exact (BR_rn H k).
  - intros s1 s2 H. change (Nat.eqb (lk s2) 0 = Nat.eqb (lk s1) 0). rewrite (BR_lk H). reflexivity.
  - intros l1 l2 s1 s2. apply BR_set_tokens.
  - intros b s1 s2. apply BR_set_ska.
  - intros b s1 s2. apply BR_set_lws.
  - intros b s1 s2. apply BR_set_ta.
  - intros b s1 s2. apply BR_set_ss.
  - intros b s1 s2. apply BR_set_se.
  - intros z l s1 s2. apply BR_set_indent.
  - intros l s1 s2. apply BR_set_ifms.
  - intros s1 s2. apply BR_set_adj_here.
  - exact BR_adv.
  - exact BR_bump.
  - exact BR_drop1.
  - exact BR_dropn.
  - intros Q s1 s2 H HQ. apply bwp_skip_linebreak; [exact H|]. intros t1 t2 HT _. apply HQ. exact HT.
  - intros Q s1 s2 H HQ. apply bwp_skip_break; [exact H|]. intros t1 t2 HT _ _. apply HQ. exact HT.
  - exact bwp_raw_read.
Qed.

End Rules.

(* 8. The Input default methods (input.rs): tests on the next characters *)
(* the values they compute, as functions of the remaining text *)
Definition n2are (s : bst) (a b : chr) : bool := ((rn s 0 =? a) && (rn s 1 =? b))%N.
Definition n3are (s : bst) (a b c : chr) : bool := ((rn s 0 =? a) && (rn s 1 =? b) && (rn s 2 =? c))%N.
Definition docind_val (s : bst) : bool :=
  if is_blank_or_breakz (rn s 3) then (if n3are s 46%N 46%N 46%N then true else n3are s 45%N 45%N 45%N) else false.
Definition docend_val (s : bst) : bool := if n3are s 46%N 46%N 46%N then is_blank_or_breakz (rn s 3) else false.
(* a literal that is neither LF nor CR (solve by [reflexivity]) *)
Definition lit (k : chr) : Prop := ((k =? 10) || (k =? 13))%N = false.
Lemma n3are_noLF (s : bst) a b c : lit a -> lit b -> lit c -> n3are s a b c = true -> noLF 3 (rm s).
Proof. exact (ScanLock.n3are_noLF s a b c). Qed.

Section Tests.
Variable md : mode.

(* document markers: no alignment premise - a marker found on one side is found on the other *)
Lemma docend_brk s1 s2 : BR md s1 s2 -> docend_val s2 = docend_val s1.
Proof. intros H. exact (docend_seen b1 b1_sees s1 s2 (fun k => BR_rn H k)). Qed.
Lemma docind_brk s1 s2 : BR md s1 s2 -> docind_val s2 = docind_val s1.
Proof. intros H. exact (docind_seen b1 b1_sees s1 s2 (fun k => BR_rn H k)). Qed.

(* the rules: the SAME value on both sides *)
Lemma bwp_next_char_is c (Q : bool -> bst -> bool -> bst -> Prop) s1 s2 :
  BR md s1 s2 -> lit c -> Q (rn s1 0 =? c)%N s1 (rn s1 0 =? c)%N s2 -> bwp (next_char_is sops c) (next_char_is sops c) Q s1 s2.
Proof. exact (lwp_next_char_is (brk_lock md) c Q s1 s2). Qed.
Lemma bwp_next_2_are a b (Q : bool -> bst -> bool -> bst -> Prop) s1 s2 :
  BR md s1 s2 -> lit a -> lit b -> Q (n2are s1 a b) s1 (n2are s1 a b) s2 -> bwp (next_2_are sops a b) (next_2_are sops a b) Q s1 s2.
Proof. exact (lwp_next_2_are (brk_lock md) a b Q s1 s2). Qed.
Lemma bwp_next_3_are a b c (Q : bool -> bst -> bool -> bst -> Prop) s1 s2 :
  BR md s1 s2 -> lit a -> lit b -> lit c -> Q (n3are s1 a b c) s1 (n3are s1 a b c) s2 ->
  bwp (next_3_are sops a b c) (next_3_are sops a b c) Q s1 s2.
Proof. exact (lwp_next_3_are (brk_lock md) a b c Q s1 s2). Qed.
End Tests.

(* 9. Contracts: the statements that ScanBrkPrim.v, ScanBrkDir.v, ScanBrkFlow.v, ScanBrkPlain.v, ScanBrkBlock.v and
   ScanBrkFetch.v prove.  TWO independent fuels everywhere: the runs on [x] and on [img md x] are given different
   fuels by [run_str] (the texts have different lengths); all loops are in lockstep, so the proofs are by induction
   on the first fuel and case analysis on the second. *)
(* how two scans end *)
Definition ER (e1 e2 : scan_end) : Prop :=
  match e1, e2 with
  | SEnded, SEnded => True
  | SError a k1, SError b k2 => a = b /\ MR k1 k2
  | SPanic _, _ | _, SPanic _ | SFuel, _ | _, SFuel => True
  | _, _ => False
  end.
Definition proper_end (e : scan_end) : Prop := match e with SEnded | SError _ _ => True | _ => False end.
Definition OTR (o1 o2 : option token) : Prop :=
  match o1, o2 with Some t1, Some t2 => TR t1 t2 | None, None => True | _, _ => False end.

Section Contracts.
Variable md : mode.

(* [bpost VR]: values related by [VR], states related;  [bpost_al VR]: moreover the next character of side 1 is
   not a line feed, i.e. positions 0 and 1 of the two inputs are aligned (what every scan_* / fetch_* entry needs) *)
Definition bpost {A1 A2} (VR : A1 -> A2 -> Prop) : A1 -> bst -> A2 -> bst -> Prop :=
  fun a1 t1 a2 t2 => VR a1 a2 /\ BR md t1 t2.
Definition bpost_al {A1 A2} (VR : A1 -> A2 -> Prop) : A1 -> bst -> A2 -> bst -> Prop :=
  fun a1 t1 a2 t2 => VR a1 a2 /\ BR md t1 t2 /\ rn t1 0 <> 10%N.

(* the skipping loops (ScanBrkPrim.v) *)
Definition brk_skip_to_next_token : Prop := forall F1 F2 s1 s2, BR md s1 s2 ->
  bwp (skip_to_next_token sops F1) (skip_to_next_token sops F2) (bpost_al eq) s1 s2.
Definition brk_skip_ws_to_eol : Prop := forall F1 F2 stb s1 s2, BR md s1 s2 ->
  bwp (skip_ws_to_eol sops F1 stb) (skip_ws_to_eol sops F2 stb) (bpost eq) s1 s2.
Definition brk_skip_yaml_whitespace : Prop := forall F1 F2 s1 s2, BR md s1 s2 ->
  bwp (skip_yaml_whitespace sops F1) (skip_yaml_whitespace sops F2) (bpost_al eq) s1 s2.

(* scanners: entered at a character that is not a line feed; the same token up to [MR] *)
Definition brk_scan_directive : Prop := forall F1 F2 s1 s2, BR md s1 s2 -> rn s1 0 <> 10%N ->
  bwp (scan_directive sops F1) (scan_directive sops F2) (bpost TR) s1 s2.
Definition brk_scan_tag : Prop := forall F1 F2 s1 s2, BR md s1 s2 -> rn s1 0 <> 10%N ->
  bwp (scan_tag sops F1) (scan_tag sops F2) (bpost TR) s1 s2.
Definition brk_scan_anchor : Prop := forall F1 F2 alias s1 s2, BR md s1 s2 -> rn s1 0 <> 10%N ->
  bwp (scan_anchor sops F1 alias) (scan_anchor sops F2 alias) (bpost TR) s1 s2.
Definition brk_scan_flow_scalar : Prop := forall F1 F2 single s1 s2, BR md s1 s2 -> rn s1 0 <> 10%N ->
  bwp (scan_flow_scalar sops F1 single) (scan_flow_scalar sops F2 single) (bpost TR) s1 s2.
Definition brk_scan_plain_scalar : Prop := forall F1 F2 s1 s2, BR md s1 s2 -> rn s1 0 <> 10%N ->
  bwp (scan_plain_scalar sops F1) (scan_plain_scalar sops F2) (bpost TR) s1 s2.
Definition brk_scan_block_scalar : Prop := forall F1 F2 literal s1 s2, BR md s1 s2 -> rn s1 0 <> 10%N ->
  bwp (scan_block_scalar sops F1 literal) (scan_block_scalar sops F2 literal) (bpost TR) s1 s2.

(* the token level (ScanBrkFetch.v) *)
Definition brk_fetch_stream_start : Prop := forall s1 s2, BR md s1 s2 ->
  bwp fetch_stream_start fetch_stream_start (bpost eq) s1 s2.
Definition brk_fetch_stream_end : Prop := forall s1 s2, BR md s1 s2 ->
  bwp fetch_stream_end fetch_stream_end (bpost eq) s1 s2.
Definition brk_fetch_directive : Prop := forall F1 F2 s1 s2, BR md s1 s2 -> rn s1 0 <> 10%N ->
  bwp (fetch_directive sops F1) (fetch_directive sops F2) (bpost eq) s1 s2.
Definition brk_fetch_tag : Prop := forall F1 F2 s1 s2, BR md s1 s2 -> rn s1 0 <> 10%N ->
  bwp (fetch_tag sops F1) (fetch_tag sops F2) (bpost eq) s1 s2.
Definition brk_fetch_anchor : Prop := forall F1 F2 alias s1 s2, BR md s1 s2 -> rn s1 0 <> 10%N ->
  bwp (fetch_anchor sops F1 alias) (fetch_anchor sops F2 alias) (bpost eq) s1 s2.
Definition brk_fetch_flow_collection_start : Prop := forall F1 F2 seq s1 s2, BR md s1 s2 -> rn s1 0 <> 10%N ->
  bwp (fetch_flow_collection_start sops F1 seq) (fetch_flow_collection_start sops F2 seq) (bpost eq) s1 s2.
Definition brk_fetch_flow_collection_end : Prop := forall F1 F2 seq s1 s2, BR md s1 s2 -> rn s1 0 <> 10%N ->
  bwp (fetch_flow_collection_end sops F1 seq) (fetch_flow_collection_end sops F2 seq) (bpost eq) s1 s2.
Definition brk_fetch_flow_entry : Prop := forall F1 F2 s1 s2, BR md s1 s2 -> rn s1 0 <> 10%N ->
  bwp (fetch_flow_entry sops F1) (fetch_flow_entry sops F2) (bpost eq) s1 s2.
Definition brk_fetch_block_entry : Prop := forall F1 F2 s1 s2, BR md s1 s2 -> rn s1 0 <> 10%N ->
  bwp (fetch_block_entry sops F1) (fetch_block_entry sops F2) (bpost eq) s1 s2.
(* three characters are consumed blindly: they are the marker just recognised, none of them a line feed *)
Definition brk_fetch_document_indicator : Prop := forall t s1 s2, BR md s1 s2 -> noLF 3 (rm s1) ->
  bwp (fetch_document_indicator sops t) (fetch_document_indicator sops t) (bpost eq) s1 s2.
Definition brk_fetch_block_scalar : Prop := forall F1 F2 literal s1 s2, BR md s1 s2 -> rn s1 0 <> 10%N ->
  bwp (fetch_block_scalar sops F1 literal) (fetch_block_scalar sops F2 literal) (bpost eq) s1 s2.
Definition brk_fetch_flow_scalar : Prop := forall F1 F2 single s1 s2, BR md s1 s2 -> rn s1 0 <> 10%N ->
  bwp (fetch_flow_scalar sops F1 single) (fetch_flow_scalar sops F2 single) (bpost eq) s1 s2.
Definition brk_fetch_plain_scalar : Prop := forall F1 F2 s1 s2, BR md s1 s2 -> rn s1 0 <> 10%N ->
  bwp (fetch_plain_scalar sops F1) (fetch_plain_scalar sops F2) (bpost eq) s1 s2.
Definition brk_fetch_key : Prop := forall F1 F2 s1 s2, BR md s1 s2 -> rn s1 0 <> 10%N ->
  bwp (fetch_key sops F1) (fetch_key sops F2) (bpost eq) s1 s2.
Definition brk_fetch_value : Prop := forall F1 F2 s1 s2, BR md s1 s2 -> rn s1 0 <> 10%N ->
  bwp (fetch_value sops F1) (fetch_value sops F2) (bpost eq) s1 s2.
Definition brk_fetch_flow_value : Prop := forall F1 F2 s1 s2, BR md s1 s2 -> rn s1 0 <> 10%N ->
  bwp (fetch_flow_value sops F1) (fetch_flow_value sops F2) (bpost eq) s1 s2.
Definition brk_fetch_next_token : Prop := forall F1 F2 s1 s2, BR md s1 s2 ->
  bwp (fetch_next_token sops F1) (fetch_next_token sops F2) (bpost eq) s1 s2.
Definition brk_fetch_more_tokens : Prop := forall F1 F2 n1 n2 s1 s2, BR md s1 s2 ->
  bwp (fetch_more_tokens sops F1 n1) (fetch_more_tokens sops F2 n2) (bpost eq) s1 s2.
Definition brk_next_token : Prop := forall F1 F2 s1 s2, BR md s1 s2 ->
  bwp (next_token sops F1) (next_token sops F2) (bpost OTR) s1 s2.
(* the whole scan: the two ends are related, and when both are proper (ended / error) so are the token lists *)
Definition brk_scan_all : Prop := forall F1 F2 n1 n2 s1 s2 acc1 acc2, BR md s1 s2 -> Forall2 TR acc1 acc2 ->
  ER (snd (scan_all sops F1 n1 s1 acc1)) (snd (scan_all sops F2 n2 s2 acc2))
  /\ (proper_end (snd (scan_all sops F1 n1 s1 acc1)) -> proper_end (snd (scan_all sops F2 n2 s2 acc2)) ->
      Forall2 TR (fst (scan_all sops F1 n1 s1 acc1)) (fst (scan_all sops F2 n2 s2 acc2))).

(* THE TARGET (scanner level): for a CR-free text and its image, whatever the fuels *)
Definition brk_target : Prop := forall x, nocr x -> forall F1 F2 n1 n2,
  let r1 := scan_all sops F1 n1 (init_sc {| si_chars := x; si_look := 0 |}) [] in
  let r2 := scan_all sops F2 n2 (init_sc {| si_chars := img md x; si_look := 0 |}) [] in
  ER (snd r1) (snd r2) /\ (proper_end (snd r1) -> proper_end (snd r2) -> Forall2 TR (fst r1) (fst r2)).
Lemma brk_target_of_scan_all : brk_scan_all -> brk_target.
Proof. intros H x Hx F1 F2 n1 n2. apply H; [apply BR_init; exact Hx|constructor]. Qed.

End Contracts.
