(* C13, scanner half (4): a JSON number or literal (a plain one-word scalar) and the insignificant whitespace behind it.
   scan_plain_scalar reads on over blanks and line breaks (a plain scalar may continue on the next line) and stops at
   ',' ']' '}' or at the end of the input.  Built from the loop lemmas of C04 (Proofs/PlainScalarProofs.v). *)
From Coq Require Import List NArith ZArith Bool Arith Lia.
Import ListNotations.
Require Import Parser SBase SPrim SDir SScalar SFetch Pipe Json FlowFold FlowScalarProofs PlainScalarProofs QuotedFoldProofs JsonScanBase JsonScanTok.
Open Scope N_scope.
Open Scope mon_scope.

Arguments scan_plain_scalar : simpl never.
Arguments plain_chunk : simpl never.

(* the characters of JSON numbers and literals: digits, - + . E, lower-case letters *)
Definition wchar (c : N) : bool :=
  ((48 <=? c) && (c <=? 57)) || (c =? 45) || (c =? 43) || (c =? 46) || (c =? 69) || ((97 <=? c) && (c <=? 122)).
(* a word: such characters, not starting with '.', a leading '-' followed by a digit *)
Definition jword (w : list N) : bool :=
  match w with
  | [] => false
  | c :: r => forallb wchar w && negb (c =? 46) && (negb (c =? 45) || is_digit (nth 0 r 0))
  end.

Lemma wchar_ne c k : wchar c = true -> wchar k = false -> (c =? k) = false.
Proof. intros Hc Hk. destruct (N.eqb_spec c k) as [->|]; [congruence|reflexivity]. Qed.

Lemma wchar_facts c : wchar c = true ->
  is_blank_or_breakz c = false /\ is_flow c = false /\ (c =? 58) = false /\ (c =? 35) = false.
Proof.
  intros H. unfold is_blank_or_breakz, is_blank, is_breakz, is_break, is_z, is_flow.
  rewrite !(wchar_ne c _ H) by reflexivity. repeat split.
Qed.
Lemma wchar_cbf fl c nc : wchar c = true -> cbf fl c nc = true.
Proof. intros H. destruct (wchar_facts c H) as (_ & Hf & H58 & _). unfold cbf. rewrite H58, Hf, andb_false_r. reflexivity. Qed.

(* the characters of the word *)
Lemma chunk_word s0 L (HL : (128 <= L)%nat) : forall wd fuel j acc after m,
  forallb wchar wd = true -> stops_chunk s0 after -> (2 * length wd + 2 <= fuel)%nat ->
  plain_chunk str_ops fuel j acc (st_with s0 (wd ++ after) L m false)
  = Ok (rev wd ++ acc, st_with s0 after L (adv (N.of_nat (length wd)) m) false).
Proof.
  induction wd as [|c wd IH]; intros fuel j acc after m Hw Hs Hf.
  - destruct fuel as [|[|fuel]]; [cbn in Hf; lia|cbn in Hf; lia|]. cbn [app rev length].
    rewrite (chunk_stop s0 L HL fuel j acc after m Hs). change (N.of_nat 0) with 0. rewrite adv_0. reflexivity.
  - cbn [forallb] in Hw. apply andb_prop in Hw as [Hc Hw]. cbn [length] in Hf.
    destruct fuel as [|[|fuel]]; [lia|lia|]. cbn [app].
    destruct (chunk_step s0 L HL fuel j acc c (wd ++ after) m (proj1 (wchar_facts c Hc)) (wchar_cbf _ c _ Hc)) as (j' & _ & E).
    rewrite E. rewrite IH; [|exact Hw|exact Hs|destruct (Nat.leb 127 j); cbv iota; unfold chr in *; lia].
    rewrite adv_adv. cbn [rev length]. rewrite <- app_assoc. cbn [app]. replace (1 + N.of_nat (length wd)) with (N.of_nat (S (length wd))) by lia. reflexivity.
Qed.

(* the insignificant whitespace behind the word: plain_blanks *)
Lemma pblanks_ws F s0 start L (HL : (128 <= L)%nat) : sc_indent s0 = (-1)%Z ->
  forall n w1, (length w1 <= n)%nat -> forall fb lb tb ws rest2 m w,
  wsb w1 = true -> tokstart rest2 -> (n < fb)%nat ->
  exists r m' w',
    plain_blanks str_ops F fb (sc_indent s0 + 1)%Z start lb tb ws (st_with s0 (w1 ++ rest2) L m w)
    = Ok (r, st_with s0 rest2 L m' w').
Proof.
  intros Hind. assert (Hcol : forall m, col_ok s0 m) by (intros m; unfold col_ok; rewrite Hind; lia).
  induction n as [|n IH]; intros w1 Hlen fb lb tb ws rest2 m w Hw [Hts H35] Hfb.
  - destruct w1; [|cbn in Hlen; lia]. destruct fb as [|fb]; [lia|]. cbn [app].
    apply is_ws_false in Hts as (H32 & H9 & H10 & H13).
    rewrite pb_stop; [eauto| unfold is_blank; rewrite H32, H9; reflexivity | unfold is_break; rewrite H10, H13; reflexivity].
  - destruct w1 as [|c w1]; [apply (IH [] ltac:(cbn; lia)); try assumption; [split; assumption|lia]|].
    destruct fb as [|fb]; [lia|]. cbn [wsb forallb] in Hw. apply andb_prop in Hw as [Hc Hw]. cbn [length] in Hlen. cbn [app].
    assert (Hblank : forall b, is_blank b = true -> b = c ->
              exists r m' w', plain_blanks str_ops F (S fb) (sc_indent s0 + 1)%Z start lb tb ws (st_with s0 (b :: w1 ++ rest2) L m w)
                              = Ok (r, st_with s0 rest2 L m' w')).
    { intros b Hb _. destruct w.
      - rewrite (pb_blank_skip F s0 start L HL fb lb tb ws b (w1 ++ rest2) m Hb (fun _ => Hcol m)).
        apply (IH w1); try assumption; [lia|split; assumption|lia].
      - rewrite (pb_blank_ws F s0 start L HL fb lb tb ws b (w1 ++ rest2) m Hb).
        apply (IH w1); try assumption; [lia|split; assumption|lia]. }
    assert (Hnl : forall k r2, c :: w1 ++ rest2 = nl_src k ++ r2 -> cr_ok k r2 ->
              (exists w2, r2 = w2 ++ rest2 /\ wsb w2 = true /\ (length w2 <= n)%nat) ->
              exists r m' w', plain_blanks str_ops F (S fb) (sc_indent s0 + 1)%Z start lb tb ws (st_with s0 (c :: w1 ++ rest2) L m w)
                              = Ok (r, st_with s0 rest2 L m' w')).
    { intros k r2 E Hcr (w2 & -> & Hw2 & Hl2). rewrite E. destruct w.
      - rewrite (pb_nl_more F s0 start L HL k fb lb tb ws (w2 ++ rest2) m Hcr).
        apply (IH w2); try assumption; [split; assumption|lia].
      - rewrite (pb_nl_first F s0 start L HL k fb lb tb ws (w2 ++ rest2) m Hcr).
        apply (IH w2); try assumption; [split; assumption|lia]. }
    destruct (is_ws_cases c Hc) as [-> | [-> | [-> | ->]]].
    + apply (Hblank 32); reflexivity.
    + apply (Hblank 9); reflexivity.
    + apply (Hnl NlLF (w1 ++ rest2)); [reflexivity|intros E; discriminate E|exists w1; repeat split; [exact Hw|lia]].
    + destruct w1 as [|c2 w1].
      * apply (Hnl NlCR rest2); [reflexivity| |exists []; repeat split; cbn; lia].
        intros _. apply is_ws_false in Hts. tauto.
      * cbn [forallb] in Hw. apply andb_prop in Hw as [Hc2 Hw]. cbn [length] in Hlen.
        destruct (N.eqb_spec c2 10) as [->|Hne].
        -- apply (Hnl NlCRLF (w1 ++ rest2)); [reflexivity|intros E; discriminate E|exists w1; repeat split; [exact Hw|lia]].
        -- apply (Hnl NlCR ((c2 :: w1) ++ rest2)); [reflexivity| |exists (c2 :: w1); repeat split; [cbn [wsb forallb]; rewrite Hc2; exact Hw|cbn [length]; lia]].
           intros _. cbn [app nth]. apply N.eqb_neq. exact Hne.
Qed.

(* scan_plain_scalar on a word *)
(* what follows a number or literal (after whitespace): the end of the input; in a collection , ] } *)
Definition pfollow (fl : N) (y : N) : bool := is_z y || ((0 <? fl) && ((y =? 44) || (y =? 93) || (y =? 125))).

Lemma pfollow_ends fl y nc : pfollow fl y = true -> is_z y = true \/ cbf (0 <? fl) y nc = false.
Proof.
  unfold pfollow. intros H. apply orb_prop in H as [H|H]; [left; exact H|right].
  apply andb_prop in H as [Hfl H]. rewrite Hfl. unfold cbf, is_flow.
  repeat (apply orb_prop in H as [H|H]); apply N.eqb_eq in H; subst y; reflexivity.
Qed.

Lemma jword_head c wd after : jword (c :: wd) = true ->
  wchar c = true /\ forallb wchar wd = true /\ doc_ind (c :: wd ++ after) = false
  /\ ((c =? 45) && is_flow (nth 0 (wd ++ after) 0)) = false
  /\ ((c =? 45) && is_blank_or_breakz (nth 0 (wd ++ after) 0)) = false
  /\ nodoc (c :: wd ++ after).
Proof.
  unfold jword. intros H. apply andb_prop in H as [H H45]. apply andb_prop in H as [H H46].
  cbn [forallb] in H. apply andb_prop in H as [Hc Hw]. apply negb_true_iff in H46.
  assert (Hd : (c =? 45) = true -> exists d wd', wd = d :: wd' /\ is_digit d = true).
  { intros E. rewrite E in H45. cbn in H45. destruct wd as [|d wd']; [discriminate|]. eauto. }
  assert (Hdig : forall d, is_digit d = true -> wchar d = true).
  { intros d Hdd. unfold wchar. unfold is_digit in Hdd. rewrite Hdd. reflexivity. }
  split; [exact Hc|]. split; [exact Hw|].
  destruct (c =? 45) eqn:E45.
  - destruct (Hd eq_refl) as (d & wd' & -> & Hdd). cbn [app nth].
    pose proof (Hdig d Hdd) as Hwd. destruct (wchar_facts d Hwd) as (Hb & Hf & _).
    assert (H45d : (d =? 45) = false).
    { unfold is_digit in Hdd. apply andb_prop in Hdd as [A B]. apply N.leb_le in A. apply N.eqb_neq. lia. }
    unfold doc_ind, nodoc. cbn [nth]. rewrite H46, E45, H45d, Hb, Hf. cbn. rewrite ?andb_false_r.
    repeat split; try reflexivity. apply N.eqb_eq in E45. subst c. reflexivity.
  - unfold doc_ind, nodoc. cbn [nth]. rewrite H46, E45. cbn. rewrite ?andb_false_r. repeat split; try reflexivity.
    apply wchar_ne; [exact Hc|reflexivity].
Qed.

Lemma word_scan F c wd w1 rest2 l mk q adj ska sks fl tp ta lws ifms :
  jword (c :: wd) = true -> wsb w1 = true -> tokstart rest2 -> pfollow fl (nth 0 rest2 0) = true ->
  (2 * length (wd ++ w1) + 8 <= F)%nat ->
  exists l' mk' lws' ska' sp,
    scan_plain_scalar str_ops F (mkst (c :: wd ++ w1 ++ rest2) l mk q adj ska sks fl tp ta lws ifms)
    = Ok ((sp, TScalar Plain (c :: wd)), mkst rest2 l' mk' q adj ska' sks fl tp ta lws' ifms).
Proof.
  intros Hj Hw Hts Hfol HF. rewrite app_length in HF.
  destruct (jword_head c wd (w1 ++ rest2) Hj) as (Hc & Hwd & Hdoc & H76 & _ & _).
  destruct (wchar_facts c Hc) as (Hb & Hfc & H58 & H35).
  set (s0 := mkst [] 0 mk0 q adj ska sks fl tp ta false ifms).
  set (L := Nat.max (Nat.max l 4) 128). assert (HL : (128 <= L)%nat) by (unfold L; lia).
  assert (Hind : sc_indent s0 = (-1)%Z) by reflexivity.
  assert (Hcolok : forall m, col_ok s0 m) by (intros m; unfold col_ok; rewrite Hind; lia).
  destruct Hts as [Hts H35r]. pose proof (is_ws_false _ Hts) as (R32 & R9 & R10 & R13).
  assert (Rb : is_blank (nth 0 rest2 0) = false) by (unfold is_blank; rewrite R32, R9; reflexivity).
  assert (Rk : is_break (nth 0 rest2 0) = false) by (unfold is_break; rewrite R10, R13; reflexivity).
  (* the loop *)
  assert (Hloop : exists mk' lws' endm,
            ploop F (sc_indent s0 + 1)%Z mk F [] false 0 [] mk (st_with s0 (c :: wd ++ w1 ++ rest2) l mk lws)
            = Ok ((rev wd ++ [c], endm), st_with s0 rest2 L mk' lws')).
  { destruct F as [|[|F2]]; [lia|lia|]. cbn [ploop].
    rewrite (pbody_word (S (S F2)) s0 mk L HL 0%nat _ [] false 0 [] mk c (wd ++ w1 ++ rest2) l mk lws [] false 0 []).
    2:{ intros _. exact Hdoc. }
    2:{ intros E. subst c. discriminate H35. }
    2:{ cbn [andb]. change (sc_flow_level s0) with fl. destruct (0 <? fl); [|reflexivity]. cbn [andb]. exact H76. }
    2:{ exact Hb. }
    2:{ apply wchar_cbf. exact Hc. }
    2:{ destruct lws; reflexivity. }
    fold L.
    assert (Hstop : stops_chunk s0 (w1 ++ rest2)).
    { destruct w1 as [|c0 w1'].
      - cbn [app]. destruct (pfollow_ends fl _ (nth 1 rest2 0) Hfol) as [Hz|Hcb].
        + left. unfold is_blank_or_breakz, is_breakz. rewrite Hz. rewrite !orb_true_r. reflexivity.
        + right. exact Hcb.
      - left. cbn [app nth]. cbn [wsb forallb] in Hw. apply andb_prop in Hw as [Hc0 _].
        destruct (is_ws_cases c0 Hc0) as [-> | [-> | [-> | ->]]]; reflexivity. }
    rewrite (bind_Ok _ _ _ _ _ (chunk_word s0 L HL wd (S (S F2)) 0%nat [c] (w1 ++ rest2) (adv 1 mk) Hwd Hstop ltac:(lia))).
    rewrite after_chunk_st.
    destruct w1 as [|c0 w1'].
    - cbn [app]. rewrite ptail_stop by assumption. eauto.
    - rewrite (ptail_blanks (S (S F2)) s0 mk L HL 0%nat).
      2:{ cbn [app nth]. cbn [wsb forallb] in Hw. apply andb_prop in Hw as [Hc0 _].
          destruct (is_ws_cases c0 Hc0) as [-> | [-> | [-> | ->]]]; reflexivity. }
      destruct (pblanks_ws (S (S F2)) s0 mk L HL Hind (length (c0 :: w1')) (c0 :: w1') (le_n _) (S (S F2)) false 0 [] rest2
                  (adv (N.of_nat (length wd)) (adv 1 mk)) false Hw (conj Hts H35r) ltac:(cbn [length] in *; lia))
        as ([[lb' tb'] ws'] & m' & w' & Eb).
      rewrite (bind_Ok _ _ _ _ _ Eb). rewrite pafter_blanks_go by apply Hcolok.
      cbn [ploop]. rewrite (pbody_end (S (S F2)) s0 mk L HL 0%nat); try assumption.
      + replace (Nat.max L 4) with L by (unfold L; lia). eauto.
      + destruct (rev wd); discriminate.
      + destruct (pfollow_ends fl _ (nth 1 rest2 0) Hfol) as [Hz|Hcb]; [right; left; exact Hz|right; right; left; exact Hcb]. }
  destruct Hloop as (mk' & lws' & endm & Eloop).
  rewrite scan_plain_scalar_phases.
  assert (Epre : forall (K : sc strin -> @M strin token),
            bind unroll_non_block_indents (fun _ => bind get K) (mkst (c :: wd ++ w1 ++ rest2) l mk q adj ska sks fl tp ta lws ifms)
            = K (st_with s0 (c :: wd ++ w1 ++ rest2) l mk lws) (st_with s0 (c :: wd ++ w1 ++ rest2) l mk lws)).
  { intros K. reflexivity. }
  rewrite Epre. cbv zeta. cbn [sc_flow_level sc_indent sc_mark st_with s0 mkst].
  change (-1 + 1)%Z with 0%Z. rewrite col_not_neg, andb_false_r.
  change 0%Z with (sc_indent s0 + 1)%Z. rewrite (bind_Ok _ _ _ _ _ Eloop).
  exists L, mk', lws', (if lws' then true else ska), {| sp_start := mk; sp_end := endm |}.
  unfold pfinish, st_with, s0, mkst. cbn. destruct lws'; cbn;
    (destruct (rev wd ++ [c]) as [|a0 t0] eqn:Er; [destruct (rev wd); discriminate|]);
    rewrite <- Er, rev_app_distr, rev_involutive; reflexivity.
Qed.

(* fetch_plain_scalar *)
Lemma word_tail F c wd w1 rest2 l mk q adj ska p tn km tls fl tp ta lws ifms :
  jword (c :: wd) = true -> wsb w1 = true -> tokstart rest2 -> pfollow fl (nth 0 rest2 0) = true ->
  (2 * length (wd ++ w1) + 8 <= F)%nat ->
  exists l' mk' lws' ska' sp mks,
    fnt_tail F (mkst (c :: wd ++ w1 ++ rest2) l mk q adj ska (skey p tn km :: tls) fl tp ta lws ifms)
    = Ok (tt, mkst rest2 l' mk' (q ++ [(sp, TScalar Plain (c :: wd))]) adj ska'
                ((if ska then skey true (tp + N.of_nat (length q)) mks else skey p tn km) :: tls) fl tp ta lws' ifms).
Proof.
  intros Hj Hw Hts Hfol HF.
  set (top' := if ska then skey true (tp + N.of_nat (length q)) mk else skey p tn km).
  destruct (word_scan F c wd w1 rest2 l mk q adj false (top' :: tls) fl tp ta lws ifms Hj Hw Hts Hfol HF)
    as (l' & mk' & lws' & ska' & sp & E).
  exists l', mk', lws', ska', sp, mk.
  destruct (jword_head c wd (w1 ++ rest2) Hj) as (Hc & _ & _ & _ & Hbz & _).
  assert (Hdisp : disp F (mkst (c :: wd ++ w1 ++ rest2) l mk q adj ska (skey p tn km :: tls) fl tp ta lws ifms)
                         (mkst (c :: wd ++ w1 ++ rest2) l mk q adj ska (skey p tn km :: tls) fl tp ta lws ifms)
                  = fetch_plain_scalar str_ops F (mkst (c :: wd ++ w1 ++ rest2) l mk q adj ska (skey p tn km :: tls) fl tp ta lws ifms)).
  { unfold disp, mkst. cbn -[DispatchTie.dispatch_tail]. rewrite col_not_lt_indent. cbn -[DispatchTie.dispatch_tail].
    rewrite DispatchTie.tbl_dispatch. destruct (N.eqb_spec c 45) as [->|N45].
    - rewrite DispatchTie.dispatch_dash; [reflexivity|exact Hbz].
    - rewrite DispatchTie.dispatch_default; [reflexivity|]. intros Hin. cbn [In] in Hin.
      repeat (destruct Hin as [<-|Hin]; [first [discriminate Hc|exact (N45 eq_refl)]|]). exact Hin. }
  unfold fnt_tail. cbn [bind get]. rewrite Hdisp.
  unfold fetch_plain_scalar.
  assert (Esave : (save_simple_key ;;; disallow_simple_key)
                    (mkst (c :: wd ++ w1 ++ rest2) l mk q adj ska (skey p tn km :: tls) fl tp ta lws ifms)
                  = Ok (tt, mkst (c :: wd ++ w1 ++ rest2) l mk q adj false (top' :: tls) fl tp ta lws ifms)).
  { unfold save_simple_key, disallow_simple_key, mkst, top'. destruct ska; cbn.
    - rewrite indent_ne_col, andb_false_r. cbn. reflexivity.
    - reflexivity. }
  rewrite <- bind_assoc. rewrite (bind_Ok _ _ _ _ _ Esave). rewrite (bind_Ok _ _ _ _ _ E). reflexivity.
Qed.

(* fetch_next_token: insignificant whitespace, then the word *)
Lemma fnt_word F c wd w w1 rest2 l mk q adj ska p tn km tls fl tp ta lws ifms :
  jword (c :: wd) = true -> wsb w = true -> wsb w1 = true -> tokstart rest2 -> pfollow fl (nth 0 rest2 0) = true ->
  (length w < F)%nat -> (2 * length (wd ++ w1) + 8 <= F)%nat -> calm fl (skey p tn km :: tls) ->
  exists l' mk' lws' ska' sp p' tn' km',
    fetch_next_token str_ops F (mkst (w ++ c :: wd ++ w1 ++ rest2) l mk q adj ska (skey p tn km :: tls) fl tp ta lws ifms)
    = Ok (tt, mkst rest2 l' mk' (q ++ [(sp, TScalar Plain (c :: wd))]) adj ska' (skey p' tn' km' :: tls) fl tp ta lws' ifms)
    /\ (ska = true -> p' = true /\ tn' = tp + N.of_nat (length q)).
Proof.
  intros Hj Hw Hw1 Hts Hfol HF HF1 Hcalm.
  destruct (jword_head c wd (w1 ++ rest2) Hj) as (Hc & _ & _ & _ & _ & Hnd).
  destruct (wchar_facts c Hc) as (Hb & _ & _ & H35).
  assert (Hcw : is_ws c = false).
  { unfold is_ws, Resolver.ch. rewrite !(wchar_ne c _ Hc) by reflexivity. reflexivity. }
  assert (Hz : is_z c = false) by (unfold is_z; apply wchar_ne; [exact Hc|reflexivity]).
  destruct (fnt_prefix F w c (wd ++ w1 ++ rest2) l mk q adj ska (skey p tn km :: tls) fl tp ta lws ifms HF Hw (conj Hcw H35) Hz Hnd Hcalm)
    as (l0 & mk0' & lws0 & ska0 & E0 & _ & B & _).
  destruct (word_tail F c wd w1 rest2 l0 mk0' q adj ska0 p tn km tls fl tp ta lws0 ifms Hj Hw1 Hts Hfol HF1)
    as (l' & mk' & lws' & ska' & sp & mks & E1).
  destruct ska0 eqn:Es.
  - exists l', mk', lws', ska', sp, true, (tp + N.of_nat (length q)), mks. split; [rewrite E0; exact E1|]. auto.
  - exists l', mk', lws', ska', sp, p, tn, km. split; [rewrite E0; exact E1|].
    intros Hs. discriminate (B Hs).
Qed.
