From Coq Require Import List NArith Bool Lia.
Import ListNotations.
Require Import Parser Grammar C02base ParserView.

Ltac finish_start HR :=
  cbn [post gstep on_stream]; rewrite (node_ok_stack _ HR);
  eexists; split; [reflexivity|]; unfold Inv; fields;
  cbn [InvS cur_frames]; split; [exact HR | eexists; split; reflexivity].

Lemma empty_or_err_post p aid tg sp :
  Rooted (p_states p) -> post (GStream (stack_frames (p_states p))) (empty_or_err p aid tg sp).
Proof.
  intros HR. unfold empty_or_err. destruct (has_props aid tg); [|exact I].
  apply pop_post; [exact HR | intros; split; reflexivity | reflexivity].
Qed.

Lemma node_content_post p aid tg b i :
  Rooted (p_states p) -> post (GStream (stack_frames (p_states p))) (node_content p aid tg b i).
Proof.
  intros HR. rewrite node_content_if. step_peek. rewrite <- Hk in HR |- *.
  destruct (as_scalar tk) as [[st v]|].
  { apply pop_post; [exact HR | intros; split; reflexivity | reflexivity]. }
  destruct (tis TBlockEntry tk).
  { destruct i; [finish_start HR | apply empty_or_err_post; exact HR]. }
  destruct (tis TFlowSequenceStart tk); [finish_start HR|].
  destruct (tis TFlowMappingStart tk); [finish_start HR|].
  destruct (tis TBlockSequenceStart tk && b); [finish_start HR|].
  destruct (tis TBlockMappingStart tk && b); [finish_start HR|].
  apply empty_or_err_post; exact HR.
Qed.

Lemma parse_node_post p b i :
  Rooted (p_states p) -> post (GStream (stack_frames (p_states p))) (parse_node p b i).
Proof.
  intros HR. rewrite parse_node_if. step_peek. rewrite <- Hk in HR |- *.
  destruct (as_alias tk) as [name|].
  - destruct (pop_state_spec q HR) as (s & r & F' & Hst & Hpop & HF & HI).
    rewrite Hpop. fields. destruct (assoc name _); [|exact I].
    cbn [post gstep on_stream]. rewrite HF. eexists; split; [reflexivity|]. exact HI.
  - pose proof (node_props_ok q (sp, tk)) as HP.
    destruct (node_props q (sp, tk)) as [[[aid tg] q2]|?|?]; [|exact I|contradiction].
    destruct HP as [_ Hk2]. rewrite <- Hk2 in HR |- *. apply node_content_post; exact HR.
Qed.

Lemma skip_measure p t : p_token p = Some t -> S (tmeasure (skip p)) = tmeasure p.
Proof. unfold tmeasure, skip. cbn. intros ->. lia. Qed.

Lemma process_directives_ok fuel : forall p vs tags,
  tmeasure p < fuel ->
  match process_directives fuel p vs tags with
  | Panic _ => False
  | Err _ => True
  | Ok q => p_state q = p_state p /\ p_states q = p_states p /\ tmeasure q <= tmeasure p
  end.
Proof.
  induction fuel as [|fuel IH]; intros p vs tags Hm; [lia|].
  cbn [process_directives]. step_peek.
  destruct tk; try (repeat split; [exact Hs | exact Hk | rewrite <- Hpm; apply le_n]).
  - destruct vs; [exact I|].
    match goal with |- context [process_directives fuel ?q' true ?tg] => specialize (IH q' true tg) end.
    assert (Hlt : tmeasure (skip q) < fuel).
    { pose proof (skip_measure q _ Ht). lia. }
    specialize (IH Hlt). destruct (process_directives fuel _ true _); auto.
    destruct IH as (A & B & C). fields. repeat split; try congruence.
    pose proof (skip_measure q _ Ht). lia.
  - destruct (negb (is_empty_str h) && has_key h tags); [exact I|].
    match goal with |- context [process_directives fuel ?q' vs ?tg] => specialize (IH q' vs tg) end.
    assert (Hlt : tmeasure (skip q) < fuel).
    { pose proof (skip_measure q _ Ht). lia. }
    specialize (IH Hlt). destruct (process_directives fuel _ vs _); auto.
    destruct IH as (A & B & C). fields. repeat split; try congruence.
    pose proof (skip_measure q _ Ht). lia.
Qed.

Lemma skip_document_ends_ok fuel : forall p,
  tmeasure p < fuel ->
  match skip_document_ends fuel p with
  | Panic _ => False
  | Err _ => True
  | Ok q => p_state q = p_state p /\ p_states q = p_states p /\ tmeasure q <= tmeasure p
  end.
Proof.
  induction fuel as [|fuel IH]; intros p Hm; [lia|].
  cbn [skip_document_ends]. step_peek.
  destruct tk; try (repeat split; try congruence; lia).
  specialize (IH (skip q)).
  assert (Hlt : tmeasure (skip q) < fuel) by (pose proof (skip_measure q _ Ht); lia).
  specialize (IH Hlt). destruct (skip_document_ends fuel (skip q)); auto.
  destruct IH as (A & B & C). fields. repeat split; try congruence.
  pose proof (skip_measure q _ Ht). lia.
Qed.

Lemma tmeasure_bound p : tmeasure p < S (S (length (p_toks p))).
Proof. unfold tmeasure. destruct (p_token p); lia. Qed.

(* the leaves of a walk over a state function; [stk] is the stack at its start *)

Lemma post_ok G e sp q' g' :
  gstep G e = Some g' -> Inv q' g' -> post G (Ok ((e, sp), q')).
Proof. intros. cbn. eauto. Qed.

Lemma post_parse_node G q st stk b i :
  p_states q = stk -> Rooted stk -> cont_ok st = true ->
  G = GStream (cont_frames st ++ stack_frames stk) ->
  post G (parse_node (push_state q st) b i).
Proof.
  intros E HR HS ->. subst stk. apply (parse_node_post (push_state q st)). constructor; assumption.
Qed.

(* an empty scalar stands for the node that [st] waits for *)
Lemma post_empty G q st stk sp :
  p_states q = stk -> Rooted stk -> cont_ok st = true ->
  G = GStream (cont_frames st ++ stack_frames stk) ->
  post G (Ok ((empty_scalar, sp), set_state q st)).
Proof.
  intros E HR HS ->. destruct (pop_is_complete st stk (RootedCons _ _ HS HR)) as (F' & HF & HI).
  apply (post_ok _ _ _ _ (GStream F')); [exact (f_equal (option_map GStream) HF)|].
  unfold Inv. fields. rewrite E. exact HI.
Qed.

Lemma post_node_or_empty G l q st stk b i :
  p_states q = stk -> Rooted stk -> cont_ok st = true ->
  G = GStream (cont_frames st ++ stack_frames stk) ->
  post G (node_or_empty l q st b i).
Proof.
  intros E HR HS HG. unfold node_or_empty. step_peek. rewrite E in Hk.
  destruct (tin l tk); [apply (post_empty _ _ _ stk) | apply (post_parse_node _ _ _ stk)]; assumption.
Qed.

Lemma post_pop G q stk e sp (k : parser -> parser) :
  p_states q = stk -> Rooted stk ->
  (forall x, p_state (k x) = p_state x /\ p_states (k x) = p_states x) ->
  gstep G e = option_map GStream (complete (stack_frames stk)) ->
  post G (do x <- pop_state q; Ok ((e, sp), k x)).
Proof. intros E HR Hk He. apply pop_post; rewrite ?E; auto. Qed.
