(* C01, bounded work: what the character-level scanners leave alone (definitions).
   [fkeeps s s']: the token queue, the token counter, the stream flags, the simple keys, the flow level, the implicit
   flow-mapping states are unchanged and the indent stack still holds the same number of records that need a BlockEnd
   (scan_plain_scalar and scan_block_scalar pop the records that do NOT need one: unroll_non_block_indents).
   [frames m]: every normal return of [m] is related to its start state by [fkeeps] (no precondition, any input
   back-end, any fuel).  Proved for the nine character-level entry points in ScanFuelFrame.v. *)
From Coq Require Import List.
Import ListNotations.
Require Import Parser SBase SPrim.
Local Open Scope nat_scope.

(* the number of indent records that will produce a BlockEnd token when they are unrolled *)
Fixpoint npend (l : list indent_rec) : nat :=
  match l with
  | [] => 0
  | i :: r => (if in_needs_block_end i then 1 else 0) + npend r
  end.

Lemma npend_unroll_nb : forall l ind, npend (snd (unroll_nb l ind)) = npend l.
Proof.
  induction l as [|i r IH]; intros ind; cbn [unroll_nb]; [reflexivity|].
  destruct (in_needs_block_end i) eqn:E; cbn [snd]; [reflexivity|]. rewrite IH. cbn [npend]. rewrite E. reflexivity.
Qed.

Section FrameDef.
Context {I : Type}.

Definition fkeeps (s s' : sc I) : Prop :=
  sc_tokens s' = sc_tokens s /\ sc_tokens_parsed s' = sc_tokens_parsed s
  /\ sc_stream_start s' = sc_stream_start s /\ sc_stream_end s' = sc_stream_end s
  /\ sc_sks s' = sc_sks s /\ sc_flow_level s' = sc_flow_level s /\ sc_ifms s' = sc_ifms s
  /\ npend (sc_indents s') = npend (sc_indents s).

Definition frames {A} (m : @M I A) : Prop := forall s a s', m s = Ok (a, s') -> fkeeps s s'.

End FrameDef.
