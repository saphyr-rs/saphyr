(* C14 (see ScanBrk.v): the token-level skeleton of Model/SFetch.v under the state relation [BR md]:
   the walk of ScanLockFetch.v at the token-level lock [brk_klock md].  Simple keys are related by [KR] (a possible key
   is never below the current line, and one ON the current line has the current index shift), token counters are
   equal ([dk = 0]).  The five character-level contracts of ScanBrkDir.v, ScanBrkFlow.v, ScanBrkPlain.v and
   ScanBrkBlock.v (directive, tag, flow / plain / block scalar) are hypotheses of the section.

   The alignment premises ([rn s1 0 <> 10], [noLF 3 (rm s1)]) are exactly the facts the dispatcher establishes before
   each fetch_*: skip_to_next_token stops at a character that is not a line feed ([bpost_al]), and a document marker
   that was just recognised contains no line feed. *)
From Coq Require Import List NArith ZArith Bool Arith Lia.
Import ListNotations.
Require Import Parser SBase SPrim SDir SScalar SFetch ScanLock ScanLockPrim ScanBrk ScanBrkPrim.
Require ScanLockFetch.
Local Open Scope nat_scope.

(* over a state that is a variable this is cheap to check; over a nest of setters it is not *)
Lemma nb1_lock (s : bst) : nb1 s = ScanLock.nb1 s.
Proof. reflexivity. Qed.

Section BrkFetch.
Variable md : mode.

Hypothesis H_dir : brk_scan_directive md.
Hypothesis H_tag : brk_scan_tag md.
Hypothesis H_flow : brk_scan_flow_scalar md.
Hypothesis H_plain : brk_scan_plain_scalar md.
Hypothesis H_block : brk_scan_block_scalar md.

(* the 1024-character test on the implicit key of a flow-sequence pair (fetch_value): a possible key that is not on an
   earlier line is on the current line and has the current index shift, so the distance is the same on both sides *)
Lemma key_far_brk c1 c2 k1 k2 : KR c1 c2 k1 k2 -> sk_possible k1 = true ->
  ((m_line (sk_mark k1) <? m_line c1)%N || (m_index (sk_mark k1) + SIMPLE_KEY_MAX <? m_index c1)%N)
  = ((m_line (sk_mark k1) <? m_line c1)%N || (m_index (sk_mark k2) + SIMPLE_KEY_MAX <? m_index c2)%N).
Proof.
  intros HK EP. destruct (m_line (sk_mark k1) <? m_line c1)%N eqn:EL; [reflexivity|]. cbn [orb].
  apply N.ltb_ge in EL. pose proof (kr_line HK EP) as L1.
  assert (E : m_line (sk_mark k1) = m_line c1) by lia. pose proof (kr_shift HK EP E) as S.
  destruct (N.ltb_spec (m_index (sk_mark k1) + SIMPLE_KEY_MAX) (m_index c1));
  destruct (N.ltb_spec (m_index (sk_mark k2) + SIMPLE_KEY_MAX) (m_index c2)); try reflexivity; lia.
Qed.

(* [BR md] with [KR] is a lock at the token level *)
Lemma brk_klock : klock b1 MR (BR md) 0 KR.
Proof.
  constructor.
  - exact (brk_lock md).
  - intros c1 c2 k1 k2 HK. exact (kr_possible HK).
  - intros c1 c2 k1 k2 HK _. exact (kr_required HK).
  - intros c1 c2 k1 k2 HK _. rewrite N.add_0_r. exact (kr_number HK).
  - intros c1 c2 k1 k2 HK _. exact (kr_mark HK).
  - intros c1 c2 k1 k2 HK [LC _] EP. unfold sk_far. rewrite <- (proj1 (kr_mark HK)), <- LC. symmetry.
    exact (key_far_brk c1 c2 k1 k2 HK EP).
  - intros c1 c2 p r n1 n2 HM <-. rewrite N.add_0_r. apply KR_here. exact HM.
  - intros c1 c2. apply KR_dead. apply MR_refl.
  - intros c1 c2 k1 k2. exact (KR_kill c1 c2 k1 k2).
  - intros s1 s2 H. exact (br_sks H).
  - intros s1 s2 H. rewrite N.add_0_r. exact (BR_tokens_parsed H).
  - intros s1 s2 H _. exact (BR_adj_eqb H).
  - intros l1 l2 s1 s2. apply BR_set_sks.
  - intros n1 n2 s1 s2 H <-. rewrite N.add_0_r. apply BR_set_tp. exact H.
  - intros n s1 s2 H _. apply BR_set_fl. exact H.
  - intros s1 s2 H N0. rewrite <- !nb1_lock. unfold nb1, bl1. apply BR_set_lws.
    apply BR_set_mark; [|exact (mark_step_adv 1 _ _ (br_mark H))]. apply BR_drop1; [|exact N0].
    apply BR_set_ska. rewrite <- (BR_flow_level H). apply BR_set_fl. apply BR_set_sks; [exact H|].
    constructor; [apply KR_dead; apply MR_refl|exact (br_sks H)].
  - intros s1 s2 H. apply BR_set_mark; [exact H|]. apply mark_step_eol. exact (br_mark H).
Qed.

Theorem fetch_stream_start_ok : brk_fetch_stream_start md.
Proof. exact (ScanLockFetch.fetch_stream_start_ok brk_klock). Qed.
Theorem fetch_stream_end_ok : brk_fetch_stream_end md.
Proof. exact (ScanLockFetch.fetch_stream_end_ok brk_klock). Qed.
Theorem fetch_directive_ok : brk_fetch_directive md.
Proof. exact (ScanLockFetch.fetch_directive_ok brk_klock H_dir). Qed.
Theorem fetch_tag_ok : brk_fetch_tag md.
Proof. exact (ScanLockFetch.fetch_tag_ok brk_klock H_tag). Qed.
Theorem fetch_anchor_ok : brk_fetch_anchor md.
Proof. exact (ScanLockFetch.fetch_anchor_ok brk_klock). Qed.
Theorem fetch_block_scalar_ok : brk_fetch_block_scalar md.
Proof. exact (ScanLockFetch.fetch_block_scalar_ok brk_klock H_block). Qed.
Theorem fetch_flow_scalar_ok : brk_fetch_flow_scalar md.
Proof. exact (ScanLockFetch.fetch_flow_scalar_ok brk_klock H_flow). Qed.
Theorem fetch_plain_scalar_ok : brk_fetch_plain_scalar md.
Proof. exact (ScanLockFetch.fetch_plain_scalar_ok brk_klock H_plain). Qed.
Theorem fetch_flow_collection_start_ok : brk_fetch_flow_collection_start md.
Proof. exact (ScanLockFetch.fetch_flow_collection_start_ok brk_klock). Qed.
Theorem fetch_flow_collection_end_ok : brk_fetch_flow_collection_end md.
Proof. exact (ScanLockFetch.fetch_flow_collection_end_ok brk_klock). Qed.
Theorem fetch_flow_entry_ok : brk_fetch_flow_entry md.
Proof. exact (ScanLockFetch.fetch_flow_entry_ok brk_klock). Qed.
Theorem fetch_block_entry_ok : brk_fetch_block_entry md.
Proof. exact (ScanLockFetch.fetch_block_entry_ok brk_klock). Qed.
Theorem fetch_document_indicator_ok : brk_fetch_document_indicator md.
Proof. exact (ScanLockFetch.fetch_document_indicator_ok brk_klock). Qed.
Theorem fetch_key_ok : brk_fetch_key md.
Proof. exact (ScanLockFetch.fetch_key_ok brk_klock). Qed.
Theorem fetch_value_ok : brk_fetch_value md.
Proof. exact (ScanLockFetch.fetch_value_ok brk_klock). Qed.
Theorem fetch_flow_value_ok : brk_fetch_flow_value md.
Proof. intros F1 F2 s1 s2 H N0. exact (ScanLockFetch.fetch_flow_value_ok brk_klock F1 F2 s1 s2 H N0 (BR_adj_eqb H)). Qed.
Theorem fetch_next_token_ok : brk_fetch_next_token md.
Proof. exact (ScanLockFetch.fetch_next_token_ok brk_klock H_dir H_tag H_flow H_plain H_block). Qed.
Theorem fetch_more_tokens_ok : brk_fetch_more_tokens md.
Proof. exact (ScanLockFetch.fetch_more_tokens_ok brk_klock H_dir H_tag H_flow H_plain H_block). Qed.
Theorem next_token_ok : brk_next_token md.
Proof. exact (ScanLockFetch.next_token_ok brk_klock H_dir H_tag H_flow H_plain H_block). Qed.
Theorem scan_all_ok : brk_scan_all md.
Proof. exact (ScanLockFetch.scan_all_ok brk_klock H_dir H_tag H_flow H_plain H_block). Qed.

Theorem target_ok : brk_target md.
Proof. apply brk_target_of_scan_all. exact scan_all_ok. Qed.

End BrkFetch.

Print Assumptions fetch_stream_start_ok.
Print Assumptions fetch_stream_end_ok.
Print Assumptions fetch_directive_ok.
Print Assumptions fetch_tag_ok.
Print Assumptions fetch_anchor_ok.
Print Assumptions fetch_flow_collection_start_ok.
Print Assumptions fetch_flow_collection_end_ok.
Print Assumptions fetch_flow_entry_ok.
Print Assumptions fetch_block_entry_ok.
Print Assumptions fetch_document_indicator_ok.
Print Assumptions fetch_block_scalar_ok.
Print Assumptions fetch_flow_scalar_ok.
Print Assumptions fetch_plain_scalar_ok.
Print Assumptions fetch_key_ok.
Print Assumptions fetch_value_ok.
Print Assumptions fetch_flow_value_ok.
Print Assumptions fetch_next_token_ok.
Print Assumptions fetch_more_tokens_ok.
Print Assumptions next_token_ok.
Print Assumptions scan_all_ok.
Print Assumptions target_ok.
