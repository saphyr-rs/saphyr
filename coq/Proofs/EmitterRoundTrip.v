(* C09 — the END-TO-END round trip for simple trees, through the whole model pipeline, without a reader hypothesis:
   emitted text = "---" LF + block text without the final line feed (EmitterRoundTripText.v); the scanner model on that
   text (EmitterRoundTripScan*.v, EmitterRoundTripHeader.v, over Proofs/ScanBlockProofs.v); the parser model and
   Parser::load (EmitterRoundTripParse.v, over the C03 parser theorem); the loader and the resolver
   (EmitterRoundTripLoad.v, over C07_refinement, T1, T4). *)
From Coq Require Import List NArith ZArith Bool Arith Lia.
Import ListNotations.
Require Import Resolver Loader SBase SFetch Pipe PipeL Emitter EmitterProofs ListKit Parser TokenGrammar FlowText BlockText Drivers.
Require Import EmitterRoundTripDefs EmitterRoundTripText EmitterRoundTripScan EmitterRoundTripScanAll EmitterRoundTripParse EmitterRoundTripLoad.
Open Scope N_scope.

Lemma node_of_nobi c : forall n inl, nobi (node_of c inl n) = true.
Proof.
  intros n. induction n as [|b|z|t|s|l IH|l IH] using node_ind'; intros inl; try reflexivity.
  - cbn [node_of nobi]. apply forallb_map_true. revert IH. apply Forall_impl. intros x H. exact (H true).
  - cbn [node_of nobi]. apply forallb_map_true. revert IH. apply Forall_impl. intros kv [_ H]. exact (H false).
Qed.

(* the text of a simple tree is scanned to the tokens of its layout tree *)
Theorem simple_tree_tokens c m doc : simple_tree doc = true ->
  exists toks, scan_str (dump_doc c m doc) = (toks, SEnded)
               /\ map snd toks = wrap true false (tokens_of (blt (node_of c true doc))).
Proof.
  intros H. rewrite (emit_simple_text c m doc H).
  exact (scan_block_doc (node_of c true doc) (node_of_root_wf c doc H) (node_of_nobi c doc true) (node_of_depth c doc H)).
Qed.

(* the whole model pipeline on the emitted text delivers exactly one document: the tree *)
Theorem simple_tree_loads c m doc : simple_tree doc = true -> run_load (dump_doc c m doc) = LDocs [to_yaml doc].
Proof.
  intros H. destruct (simple_tree_tokens c m doc H) as (toks & Es & Hm).
  rewrite (emit_simple_text c m doc H) in *.
  rewrite (run_load_block_doc (node_of c true doc) (node_of_root_wf c doc H) (ex_intro _ toks (conj Es Hm))).
  destruct (load_simple_events c doc H) as (ld & -> & ->). reflexivity.
Qed.

Theorem round_trip_simple c m doc : simple_tree doc = true -> round_trip_ok c m doc = true.
Proof.
  intros H. unfold round_trip_ok. rewrite (simple_tree_loads c m doc H). apply simple_tree_value_refl.
Qed.

(* a simple tree is one of the trees C09_full quantifies over *)
Print Assumptions round_trip_simple.

(* step 1 of the proof as one statement: the emitted text is the header line and a document of the block text
   sub-language (Spec/BlockText.v) without its final line feed *)
Theorem simple_tree_text c m doc : simple_tree doc = true ->
  dump_doc c m doc = doc_header ++ blast (node_of c true doc)
  /\ bwf_root (node_of c true doc) = true /\ nobi (node_of c true doc) = true /\ (bdepth (node_of c true doc) <= 255)%nat.
Proof.
  intros H. split; [exact (emit_simple_text c m doc H)|]. split; [exact (node_of_root_wf c doc H)|].
  split; [apply node_of_nobi | exact (node_of_depth c doc H)].
Qed.

(* examples *)
(* a: [b, [1, {k: ~}], {true: 1.5, 7: x}], m: {n: [z]} *)
Definition simple_example : node :=
  NMap [ (NStr [97], NSeq [ NStr [98]; NSeq [NInt 1; NMap [(NStr [107], NNull)]];
                            NMap [(NBool true, NFloat [49; 46; 53]); (NInt 7, NStr [120])] ]);
         (NStr [109], NMap [(NStr [110], NSeq [NStr [122]])]) ].
Lemma simple_example_ok : simple_tree simple_example = true /\ ndepth simple_example = 4%nat.
Proof. vm_compute. split; reflexivity. Qed.
Lemma simple_example_round_trip : forall c m, round_trip_ok c m simple_example = true.
Proof. intros c m. apply round_trip_simple. exact (proj1 simple_example_ok). Qed.
Lemma simple_boundary :
  simple_tree (NSeq [NStr [97; 32; 98]]) = false          (* two words *)
  /\ simple_tree (NSeq [NStr w_true]) = false              (* a string that needs quotes *)
  /\ simple_tree (NSeq [NStr [97; 45; 98]]) = false        (* a-b: plain for the emitter, but '-' is no word character *)
  /\ simple_tree (NSeq []) = false /\ simple_tree (NSeq [NMap []]) = false   (* empty collections *)
  /\ simple_tree (NSeq [NInt (-1)]) = false                (* negative integer *)
  /\ simple_tree (NStr [97]) = false                       (* a scalar at the root *)
  /\ simple_tree (NMap [(NStr [97], NInt 1); (NStr [97], NInt 2)]) = false   (* repeated key *)
  /\ simple_tree (NSeq [NInt 0; NBool false; NNull; NStr [97]; NFloat [49; 101; 51]]) = true.
Proof. vm_compute. repeat split; reflexivity. Qed.
