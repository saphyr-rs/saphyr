(* C01, bounded work over the BUFFERED input (any capacity >= 8): the six character-level contracts, in their strict
   reading (ScanPairDir/Flow/Plain/Block.v), plugged into ScanFuelBufTop.v, and the consequences:
   - the buffered scanner, given the fuels of run_buf (F = 2 * |input| + 10 for every loop, 4F + 20 tokens), never ends
     in SFuel, and returns exactly what the string scanner returns;
   - run_buf cap = run_str (for every input, unconditionally), hence run_buf never ends in PFuel and always ends
     properly (PDone, or a first scan / parse error).
   Ingredients: the string side never runs out of fuel (ScanFuelAll.v) and never panics (ScanSafeStrTop.v); the
   buffered side never panics (ScanSafeTop.v). *)
From Coq Require Import List NArith Bool Arith Lia.
Import ListNotations.
Require Import Parser SBase SFetch Pipe SBuf ScanPair ScanFuelBufTop.
Require ScanPairDir ScanPairFlow ScanPairPlain ScanPairBlock.
Require ScanFuelAll ScanSafeStrTop ScanSafeTop ScanRelTop.
Local Open Scope nat_scope.

Lemma scan_backends_transfer : forall (orig : list chr) cap, 8 <= cap -> forall F K, 2 * length orig + 6 <= F ->
  scan_transfer (scan_all str_ops F K (init_sc {| si_chars := orig; si_look := 0 |}) [])
                (scan_all (buf_ops cap) F K (init_sc {| b_buf := []; b_rest := orig |}) []).
Proof.
  intros orig cap H F K HF.
  apply (scan_all_transfer cap H (length orig)
           (ScanPairDir.scan_directive_ok cap H true (length orig)) (ScanPairDir.scan_tag_ok cap H true (length orig))
           (ScanPairDir.scan_anchor_ok cap H true (length orig)) (ScanPairFlow.scan_flow_scalar_ok cap H true (length orig))
           (ScanPairPlain.scan_plain_scalar_ok cap H true (length orig)) (ScanPairBlock.scan_block_scalar_ok cap H true (length orig))
           F HF K); [apply SR_init|apply le_n].
Qed.

(* with the fuels of run_buf the two scanners return the same thing *)
Lemma scanner_backends_equal : forall cap (orig : list chr), 8 <= cap ->
  let F := 2 * length orig + 10 in
  scan_all (buf_ops cap) F (4 * F + 20) (init_sc {| b_buf := []; b_rest := orig |}) []
  = scan_all str_ops F (4 * F + 20) (init_sc {| si_chars := orig; si_look := 0 |}) [].
Proof.
  intros cap orig H F.
  destruct (scan_backends_transfer orig cap H F (4 * F + 20)) as [E|[E|[[n E]|[n E]]]].
  - subst F. lia.
  - symmetry. exact E.
  - destruct (ScanFuelAll.scanner_never_out_of_fuel orig E).
  - destruct (ScanSafeStrTop.scanner_never_panics_str _ _ _ _ E).
  - destruct (ScanSafeTop.scanner_never_panics_buffered cap H _ _ _ _ E).
Qed.

(* THE SCANNER HALF: the buffered scanner never exhausts the (linear) fuel run_buf gives it *)
Theorem scanner_never_out_of_fuel_buffered : forall cap (orig : list chr), 8 <= cap ->
  let F := 2 * length orig + 10 in
  snd (scan_all (buf_ops cap) F (4 * F + 20) (init_sc {| b_buf := []; b_rest := orig |}) []) <> SFuel.
Proof.
  intros cap orig H F. unfold F. rewrite (scanner_backends_equal cap orig H).
  exact (ScanFuelAll.scanner_never_out_of_fuel orig).
Qed.

(* THE PIPELINES: equal, unconditionally *)
Theorem pipeline_backends_equal : forall cap (x : list N), 8 <= cap -> run_buf cap x = run_str x.
Proof.
  intros cap x H. rewrite ScanRelTop.run_str_of, ScanRelTop.run_buf_of. f_equal.
  exact (scanner_backends_equal cap x H).
Qed.

Theorem pipeline_terminates_linear_buffered : forall cap (x : list N), 8 <= cap -> snd (run_buf cap x) <> PFuel.
Proof.
  intros cap x H. rewrite (pipeline_backends_equal cap x H). exact (ScanFuelAll.pipeline_never_out_of_fuel x).
Qed.

(* total correctness of the buffered pipeline: every run ends properly *)
Theorem pipeline_ends_properly_buffered : forall cap (x : list N), 8 <= cap ->
  ScanFuelAll.proper_pend (snd (run_buf cap x)).
Proof.
  intros cap x H. rewrite (pipeline_backends_equal cap x H). exact (ScanFuelAll.pipeline_ends_properly x).
Qed.

Print Assumptions scanner_never_out_of_fuel_buffered.
Print Assumptions pipeline_backends_equal.
Print Assumptions pipeline_terminates_linear_buffered.
Print Assumptions pipeline_ends_properly_buffered.
