(* C13, scanner half (2): one lemma per structural token of a JSON text ([ { ] } , :), with the insignificant whitespace
   around it.  Spans of tokens and positions are left existential: the theorem is about token kinds and scalar values. *)
From Coq Require Import List NArith ZArith Bool Arith Lia.
Import ListNotations.
Require Import Parser SBase SPrim SDir SScalar SFetch Pipe Json FlowFold FlowScalarProofs PlainScalarProofs QuotedFoldProofs JsonScanBase.
Open Scope N_scope.
Open Scope mon_scope.

(* '[' / '{' *)
Lemma fnt_open F (seq : bool) w w1 rest2 l mk q adj ska hd tls fl tp ta lws ifms :
  wsb w = true -> wsb w1 = true -> tokstart rest2 -> (length w < F)%nat -> (length w1 < F)%nat -> fl < 255 -> calm fl (hd :: tls) ->
  exists l' mk' w1' sp key2,
    fetch_next_token str_ops F (mkst (w ++ open_char seq :: w1 ++ rest2) l mk q adj ska (hd :: tls) fl tp ta lws ifms)
    = Ok (tt, mkst (w1' ++ rest2) l' mk' (q ++ [(sp, open_tok seq)]) adj true (dummy_key :: key2 :: tls) (fl + 1) tp ta false
                (open_ims seq :: ifms))
    /\ wsb w1' = true /\ (length w1' <= length w1)%nat
    /\ (ska = true -> exists m, key2 = skey true (tp + N.of_nat (length q)) m) /\ (0 < fl -> ska = false -> key2 = hd).
Proof.
  intros Hw Hw1 Hts HF HF1 Hfl Hcalm.
  destruct (fnt_prefix F w (open_char seq) (w1 ++ rest2) l mk q adj ska (hd :: tls) fl tp ta lws ifms HF Hw) as (l0 & mk0' & lws0 & ska0 & E0 & A & B & _);
    try assumption; try (destruct seq; repeat split; reflexivity).
  set (key2 := if ska0 then skey true (tp + N.of_nat (length q)) mk0' else hd).
  destruct (eol_ws F w1 rest2 l0 (adv 1 mk0') q adj true (dummy_key :: key2 :: tls) (fl + 1) tp ta false (open_ims seq :: ifms) Hw1 Hts HF1)
    as (l' & mk' & w1' & tw & E & Hw1' & Hlen).
  exists l', mk', w1', (spn mk0' mk'), key2. split; [|split; [exact Hw1'|split; [exact Hlen|split]]].
  - rewrite E0. etransitivity; [apply tail_open|].
    exact (open_step F l0 mk0' q adj tp ta seq _ (w1 ++ rest2) ska0 hd tls fl lws0 ifms tw _ l' mk' ltac:(apply N.eqb_neq; lia) E).
  - intros Hs. unfold key2. rewrite (B Hs). eauto.
  - intros Hp Hs. unfold key2. rewrite (A Hp), Hs. reflexivity.
Qed.

(* ']' / '}' closing its own kind of collection *)
Lemma fnt_close F (seq : bool) w w1 rest2 l mk q adj ska p tn km hd2 tls fl tp ta lws ifr :
  wsb w = true -> wsb w1 = true -> tokstart rest2 -> (length w < F)%nat -> (length w1 < F)%nat ->
  exists l' mk' w1' sp adj',
    fetch_next_token str_ops F (mkst (w ++ close_char seq :: w1 ++ rest2) l mk q adj ska (skey p tn km :: hd2 :: tls) (fl + 1) tp ta lws (open_ims seq :: ifr))
    = Ok (tt, mkst (w1' ++ rest2) l' mk' (q ++ [(sp, close_tok seq)]) adj' false (hd2 :: tls) fl tp ta false ifr)
    /\ wsb w1' = true /\ (length w1' <= length w1)%nat.
Proof.
  intros Hw Hw1 Hts HF HF1.
  destruct (fnt_prefix F w (close_char seq) (w1 ++ rest2) l mk q adj ska (skey p tn km :: hd2 :: tls) (fl + 1) tp ta lws (open_ims seq :: ifr) HF Hw)
    as (l0 & mk0' & lws0 & ska0 & E0 & _); try (destruct seq; repeat split; reflexivity). { left. lia. }
  destruct (eol_ws F w1 rest2 l0 (adv 1 mk0') q adj false (hd2 :: tls) fl tp ta false ifr Hw1 Hts HF1)
    as (l' & mk' & w1' & tw & E & Hw1' & Hlen).
  exists l', mk', w1', (spn mk0' mk'), (if 0 <? fl then m_index mk' else adj). split; [|split; assumption].
  rewrite E0. etransitivity; [apply tail_close|].
  assert (Htop : top_ok seq (open_ims seq)) by (destruct seq; cbn; auto).
  pose proof (close_step F l0 mk0' q adj tp ta seq (close_char seq) (w1 ++ rest2) ska0 p tn km hd2 tls fl lws0 (open_ims seq) ifr tw (w1' ++ rest2) l' mk' Htop) as C.
  cbv zeta in C. replace (q ++ (if seq then fme (open_ims seq) mk0' else [])) with q in C by (destruct seq; symmetry; apply app_nil_r).
  exact (C E).
Qed.

(* ',' between the entries of '[' (no single pair is open: JSON arrays hold no "key: value" entry) or of '{' *)
Lemma fnt_comma F (seq : bool) w w1 rest2 l mk q adj ska p tn km tls fl tp ta lws ifr :
  wsb w = true -> wsb w1 = true -> tokstart rest2 -> (length w < F)%nat -> (length w1 < F)%nat -> 0 < fl ->
  exists l' mk' w1' sp,
    fetch_next_token str_ops F (mkst (w ++ 44 :: w1 ++ rest2) l mk q adj ska (skey p tn km :: tls) fl tp ta lws (open_ims seq :: ifr))
    = Ok (tt, mkst (w1' ++ rest2) l' mk' (q ++ [(sp, TFlowEntry)]) adj true (skey false tn km :: tls) fl tp ta false (open_ims seq :: ifr))
    /\ wsb w1' = true /\ (length w1' <= length w1)%nat.
Proof.
  intros Hw Hw1 Hts HF HF1 Hfl.
  destruct (fnt_prefix F w 44 (w1 ++ rest2) l mk q adj ska (skey p tn km :: tls) fl tp ta lws (open_ims seq :: ifr) HF Hw)
    as (l0 & mk0' & lws0 & ska0 & E0 & _); try (repeat split; reflexivity). { left. exact Hfl. }
  destruct (eol_ws F w1 rest2 l0 (adv 1 mk0') q adj true (skey false tn km :: tls) fl tp ta false (open_ims seq :: ifr) Hw1 Hts HF1)
    as (l' & mk' & w1' & tw & E & Hw1' & Hlen).
  exists l', mk', w1', (spn mk0' mk'). split; [|split; assumption].
  rewrite E0. etransitivity; [apply tail_comma|].
  pose proof (comma_step F l0 mk0' q adj tp ta (w1 ++ rest2) ska0 p tn km tls fl lws0 (open_ims seq) ifr tw (w1' ++ rest2) l' mk') as C.
  replace (fme (open_ims seq) mk0') with (@nil token) in C by (destruct seq; reflexivity).
  replace (after_pair (open_ims seq)) with (open_ims seq) in C by (destruct seq; reflexivity).
  rewrite app_nil_r in C. exact (C E).
Qed.

(* ':' directly behind a member name (the string's fetch left sc_adjacent at this very position): Key goes in front of the name *)
Lemma fnt_colon F cs l mk q0 kt ska km tls fl tp ta lws ifr :
  (0 < F)%nat -> 0 < fl ->
  exists l' mk' sp1 sp2,
    fetch_next_token str_ops F (mkst (58 :: cs) l mk (q0 ++ [kt]) (m_index mk) ska (skey true (tp + N.of_nat (length q0)) km :: tls) fl tp ta lws (ImMapping :: ifr))
    = Ok (tt, mkst cs l' mk' ((q0 ++ [(sp1, TKey); kt]) ++ [(sp2, TValue)]) (m_index mk) false
                (skey false (tp + N.of_nat (length q0)) km :: tls) fl tp ta false (ImMapping :: ifr)).
Proof.
  intros HF Hfl.
  destruct (fnt_prefix F [] 58 cs l mk (q0 ++ [kt]) (m_index mk) ska (skey true (tp + N.of_nat (length q0)) km :: tls) fl tp ta lws (ImMapping :: ifr))
    as (l0 & mk0' & lws0 & ska0 & E0 & _ & _ & Hmk); try (repeat split; reflexivity). { exact HF. } { left. exact Hfl. }
  rewrite (Hmk eq_refl) in E0. cbn [app] in E0.
  exists l0, (adv 1 mk), (span_empty km), (span_empty mk). rewrite E0.
  etransitivity; [apply tail_colon; [exact Hfl | right; reflexivity]|].
  apply (value_step F cs l0 mk q0 kt (m_index mk) ska0 km tls fl tp ta lws0 ImMapping ifr Hfl). discriminate.
Qed.
