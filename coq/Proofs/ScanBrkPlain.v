(* C14 (see ScanBrk.v): the PLAIN SCALAR family - the walk of ScanLockPlain.v at the lock [brk_lock md].  Line
   breaks (LF on side 1, CR LF / CR on side 2) are consumed by [skip_break], counted and never copied, so the
   collected text is the same. *)
Require Import ScanBrk.
Require ScanLockPlain.

Theorem scan_plain_scalar_ok md : brk_scan_plain_scalar md.
Proof. exact (ScanLockPlain.scan_plain_scalar_ok (brk_lock md)). Qed.

Print Assumptions scan_plain_scalar_ok.
