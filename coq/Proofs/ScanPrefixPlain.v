(* C15 prefix stability of the scanner (see ScanPrefix.v): the family of PLAIN SCALARS (Model/SScalar.v) under the
   state relation [SH d] of ScanPrefix.v (side 1 reads a text that ends, side 2 the same text followed by "...\n" ++ d).

     scan_plain_scalar_ok : forall d, shf_scan_plain_scalar d

   Port of ScanShiftPlain.v.  The genuinely new case: a plain scalar that ends at the end of input on side 1 ends at
   the document marker "..." in column 0 on side 2, with the same text and the same end mark (the head of the word
   loop, case [rn u1 0 = 0]).  Inside a word side 1 is never at its end (only characters that are neither breaks nor
   NUL have been consumed since the last test); in plain_blanks the classes is_blank / is_break do not tell NUL
   from '.'.  TWO fuels everywhere. *)
From Coq Require Import List NArith ZArith Bool Arith Lia.
Import ListNotations.
Require Import Parser SBase SPrim SDir SScalar SFetch ScanLoops ScanPrefix ScanPrefixPrim.
Local Open Scope nat_scope.
Local Open Scope mon_scope.

Lemma docind_end (s : bst) : rm s = [] -> docind_val s = false.
Proof. intros E. unfold docind_val, n3are, rn. rewrite E. reflexivity. Qed.
Lemma atend_end (s : bst) : rm s = [] -> atend s = true.
Proof. intros E. unfold atend. rewrite E. reflexivity. Qed.
Lemma atend_ne (s : bst) : rm s <> [] -> atend s = false.
Proof. intros H. unfold atend. destruct (rm s); [exfalso; apply H; reflexivity|reflexivity]. Qed.
Lemma rn0_ne (s : bst) : rn s 0 <> 0%N -> rm s <> [].
Proof. intros H E. apply H. unfold rn. rewrite E. reflexivity. Qed.

Section BrkPlain.
Variable d : list chr.
Local Notation bwp := (swp d).

(* what the word loop returns: the same (reversed) text, the same end mark *)
Definition PR (r1 r2 : list chr * marker) : Prop := fst r1 = fst r2 /\ MS d (snd r1) (snd r2).

(* plain_chunk: lockstep, the same chunk counter, two fuels; side 1 is not at its end *)
Lemma shf_plain_chunk : forall f1 f2 j acc s1 s2, SH d s1 s2 -> rm s1 <> [] ->
  bwp (plain_chunk sops f1 j acc) (plain_chunk sops f2 j acc) (bpost d eq) s1 s2.
Proof.
  induction f1 as [|f1 IH]; intros f2 j acc s1 s2 H HNE; [exact I|].
  destruct f2 as [|f2]; [apply bwp_oof_r|].
  rewrite (plain_chunk_S sops f1), (plain_chunk_S sops f2).
  destruct (Nat.leb (bufmaxlen sops - 1) j).
  { (* the refresh: the same [look 128] on both sides *)
    apply bwp_bind. apply (bwp_look d); [exact H|]. intros t1 t2 HT RT _ _ _ _. apply IH; [exact HT|].
    exact (SH_ne_eq s1 t1 HNE RT). }
  apply bwp_bind. apply (bwp_next_is_in d); [exact H|exact HNE|]. cbv beta.
  apply bwp_bind. apply bwp_get. cbv beta. sh_sync H.
  destruct (is_blank_or_breakz (rn s1 0)) eqn:Eb.
  - apply bwp_bind. apply bwp_ret. cbn [orb]. apply (bwp_ret_bpost d); [reflexivity|exact H].
  - assert (N0 : nbz (rn s1 0)) by nbz_by Eb.
    apply bwp_bind. apply (bwp_next_can_be_plain_scalar d); [exact H|exact N0|]. cbn [orb].
    destruct (plain_ok_val (0 <? sc_flow_level s1)%N s1); cbn [negb].
    + apply bwp_bind. apply (bwp_peek d); [exact H|]. cbv beta. rewrite (b1_nbz _ N0).
      apply bwp_bind. apply (bwp_skip_non_blank d); [exact H|exact N0|]. intros t1 t2 HT RT.
      apply IH; [exact HT|]. exact (SH_ne_tl d s1 s2 t1 H N0 RT).
    + apply (bwp_ret_bpost d); [reflexivity|exact H].
Qed.

(* ---------------- plain_blanks: blanks in lockstep, a line break is one step on both sides ----------------
   exit: the next character is neither a blank nor a break: possibly NUL (the end of side 1) against '.' *)
Lemma shf_plain_blanks F1 F2 indent : forall f1 f2 start1 start2 lb tb ws s1 s2, SH d s1 s2 -> MS d start1 start2 ->
  bwp (plain_blanks sops F1 f1 indent start1 lb tb ws) (plain_blanks sops F2 f2 indent start2 lb tb ws)
      (bpost d eq) s1 s2.
Proof.
  induction f1 as [|f1 IH]; intros f2 start1 start2 lb tb ws s1 s2 H HM; [exact I|].
  destruct f2 as [|f2]; [apply bwp_oof_r|]. cbn [plain_blanks].
  apply bwp_bind. apply (bwp_peek d); [exact H|]. cbv beta. b1_norm.
  destruct (is_blank (rn s1 0)) eqn:Ebl.
  - assert (N0 : nbz (rn s1 0)) by nbz_by Ebl.
    rewrite (b1_nbz _ N0).
    assert (Hblank : forall ws',
              bwp (skip_blank sops ;;; look sops 2 ;;; plain_blanks sops F1 f1 indent start1 lb tb ws')
                  (skip_blank sops ;;; look sops 2 ;;; plain_blanks sops F2 f2 indent start2 lb tb ws')
                  (bpost d eq) s1 s2).
    { intros ws'. apply bwp_bind. apply (bwp_skip_blank d); [exact H|exact N0|]. intros u1 u2 HU _.
      apply bwp_bind. apply (bwp_look d); [exact HU|]. intros v1 v2 HV _ _ _ _ _. apply IH; assumption. }
    apply bwp_bind. apply bwp_get. cbv beta. sh_sync H.
    destruct (negb (sc_lws s1)); [apply Hblank|].
    destruct ((Z.of_N (m_col (sc_mark s1)) <? indent)%Z && (rn s1 0 =? 9)%N); [|apply Hblank].
    (* a tab in the indentation: side 1 is not at its end behind the white space *)
    apply bwp_bind. eapply bwp_mono; [apply (skip_ws_to_eol_ok d); exact H|]. intros a1 u1 a2 u2 (<- & HU & HNE).
    assert (NEU : rm u1 <> []) by (apply HNE; apply nbz_ne; exact N0).
    apply bwp_bind. apply (bwp_next_is_in d); [exact HU|exact NEU|]. cbv beta.
    destruct (is_breakz (rn u1 0)); [|apply bwp_fail; exact HM].
    apply bwp_bind. apply (bwp_look d); [exact HU|]. intros v1 v2 HV _ _ _ _ _. apply IH; assumption.
  - destruct (is_break (rn s1 0)) eqn:Ek.
    2:{ apply (bwp_ret_bpost d); [reflexivity|exact H]. }
    apply bwp_bind. apply bwp_get. cbv beta. sh_sync H.
    destruct (sc_lws s1).
    + apply bwp_bind. apply (bwp_skip_break d); [exact H|]. intros u1 u2 HU _ _.
      apply bwp_bind. apply (bwp_look d); [exact HU|]. intros v1 v2 HV _ _ _ _ _. apply IH; assumption.
    + apply bwp_bind. apply (bwp_skip_break d); [exact H|]. intros u1 u2 HU _ _.
      apply bwp_bind. apply (bwp_modify_br d); [apply SH_set_lws; [exact HU|left; reflexivity]|reflexivity|].
      intros w1 w2 HW _.
      apply bwp_bind. apply (bwp_look d); [exact HW|]. intros v1 v2 HV _ _ _ _ _. apply IH; assumption.
Qed.

(* ---------------- the word loop ----------------
   At the head: either side 1 is at the end of its input (column 0, "leading white space" set; side 2 sees the
   document marker) and both sides return what they have, or both sides read the same character. *)
Lemma shf_plain_go F1 F2 indent start1 start2 : MS d start1 start2 ->
  forall f1 f2 acc lb tb ws endm1 endm2 s1 s2, SH d s1 s2 -> MS d endm1 endm2 ->
  bwp (plain_go sops F1 indent start1 f1 acc lb tb ws endm1) (plain_go sops F2 indent start2 f2 acc lb tb ws endm2)
      (bpost d PR) s1 s2.
Proof.
  intros HS. induction f1 as [|f1 IH]; intros f2 acc lb tb ws endm1 endm2 s1 s2 H HE; [exact I|].
  destruct f2 as [|f2]; [apply bwp_oof_r|]. cbn [plain_go].
  apply bwp_bind. apply (bwp_look d); [exact H|]. intros u1 u2 HU RU _ _ _ _.
  apply bwp_bind. apply bwp_get. cbv beta. sh_sync HU.
  destruct (N.eq_dec (rn u1 0) 0) as [E0|NE].
  { (* THE END OF INPUT on side 1: side 2 stops at the marker line, side 1 at NUL, with the same result *)
    pose proof (SH_at_end HU E0) as EM. destruct (SH_end_col HU E0) as [EC EL].
    rewrite EL, EC, N.eqb_refl. cbn [andb].
    apply bwp_bind. apply (bwp_next_is_document_indicator d); [exact HU|].
    rewrite (docind_end _ EM), (atend_end _ EM). cbn [orb].
    apply bwp_bind. apply (bwp_peek d); [exact HU|]. rewrite E0. cbv beta.
    replace (0 =? 35)%N with false by reflexivity. cbn [orb]. cbv iota.
    eapply bwp_step_l; [apply peekn_ok|]. cbv beta zeta.
    replace (0 =? 45)%N with false by reflexivity. rewrite andb_false_r. cbn [andb]. cbv iota.
    change (is_blank_or_breakz 0%N) with true. cbv iota.
    eapply bwp_step_l; [reflexivity|]. cbv beta iota.
    eapply bwp_step_l; [reflexivity|]. cbv beta iota.
    eapply bwp_step_l; [apply peek_ok|]. rewrite E0.
    change (negb (is_blank 0%N || is_break 0%N)) with true. cbv iota.
    apply (bwp_ret_bpost d); [split; [reflexivity|exact HE]|exact HU]. }
  pose proof (rn0_ne u1 NE) as HNE.
  apply bwp_bind.
  match goal with |- swp _ _ _ ?Q _ _ => assert (HQ : forall di, Q di u1 di u2) end.
  2:{ destruct (sc_lws u1 && (m_col (sc_mark u1) =? 0)%N);
      [apply (bwp_next_is_document_indicator d); [exact HU|rewrite (atend_ne _ HNE), orb_false_r; apply HQ]
      |apply bwp_ret; exact (HQ false)]. }
  intros di. cbv beta.
  apply bwp_bind. apply (bwp_peek d); [exact HU|]. cbv beta. rewrite (b1_other _ NE).
  destruct (di || (rn u1 0 =? 35)%N); [apply (bwp_ret_bpost d); [split; [reflexivity|exact HE]|exact HU]|].
  apply bwp_bind. apply (bwp_peekn_lt3 d); [exact HU|lia|]. cbv beta zeta. b1_norm.
  match goal with |- swp _ (if ?b then _ else _) _ _ _ _ => destruct b end; [apply bwp_err_l|].
  apply bwp_bind.
  match goal with |- swp _ _ _ ?Q _ _ => assert (HQ : forall cb, (cb = true -> nbz (rn u1 0)) -> Q cb u1 cb u2) end.
  2:{ destruct (is_blank_or_breakz (rn u1 0)) eqn:Ebz;
      [apply bwp_ret; apply (HQ false); discriminate|].
      assert (NU : nbz (rn u1 0)) by nbz_by Ebz.
      apply (bwp_next_can_be_plain_scalar d); [exact HU|exact NU|apply HQ; intros _; exact NU]. }
  intros cb Hcb. cbv beta.
  apply bwp_bind.
  (* what happens after the word has been consumed *)
  match goal with |- swp _ _ _ ?Q _ _ =>
    assert (HQ : forall r m1 m2 v1 v2, SH d v1 v2 -> MS d m1 m2 -> Q (r, m1) v1 (r, m2) v2) end.
  { intros [[[acc' lb'] tb'] ws'] m1 m2 v1 v2 HV HM. cbv beta iota.
    apply bwp_bind. apply (bwp_peek d); [exact HV|]. cbv beta. b1_norm.
    destruct (negb (is_blank (rn v1 0) || is_break (rn v1 0)));
      [apply (bwp_ret_bpost d); [split; [reflexivity|exact HM]|exact HV]|].
    apply bwp_bind. apply (bwp_look d); [exact HV|]. intros w1 w2 HW _ _ _ _ _.
    eapply (bwp_call_eq d); [apply shf_plain_blanks; [exact HW|exact HS]|]. intros [[lb2 tb2] ws2] x1 x2 HX.
    cbv beta iota.
    apply bwp_bind. apply bwp_get. cbv beta. sh_sync HX.
    match goal with |- swp _ (if ?b then _ else _) _ _ _ _ => destruct b end;
      [apply (bwp_ret_bpost d); [split; [reflexivity|exact HM]|exact HX]|].
    apply IH; assumption. }
  destruct cb; [|apply bwp_ret; exact (HQ (acc, lb, tb, ws) endm1 endm2 u1 u2 HU HE)].
  pose proof (Hcb eq_refl) as NU.
  match goal with |- swp _ _ _ ?Q' _ _ =>
    assert (HW : forall a1 l1 t1 w1,
      bwp (modify (set_lws false) ;;; skip_non_blank sops ;;; look sops (bufmaxlen sops) ;;;
           acc0 <- plain_chunk sops F1 0 (rn u1 0 :: a1) ;; m <- mark ;; ret (acc0, l1, t1, w1, m))
          (modify (set_lws false) ;;; skip_non_blank sops ;;; look sops (bufmaxlen sops) ;;;
           acc0 <- plain_chunk sops F2 0 (rn u1 0 :: a1) ;; m <- mark ;; ret (acc0, l1, t1, w1, m)) Q' u1 u2) end.
  { intros a1 l1 t1 w1.
    apply bwp_bind. apply (bwp_modify_br d); [apply SH_set_lws; [exact HU|right; exact HNE]|reflexivity|].
    intros v1 v2 HV RV.
    assert (NV : nbz (rn v1 0)) by (rewrite (rn_eq v1 u1 0 RV); exact NU).
    apply bwp_bind. apply (bwp_skip_non_blank d); [exact HV|exact NV|]. intros x1 x2 HX RX.
    pose proof (SH_ne_tl d v1 v2 x1 HV NV RX) as NEX.
    apply bwp_bind. apply (bwp_look d); [exact HX|]. intros y1 y2 HY RY _ _ _ _.
    eapply (bwp_call_eq d); [apply shf_plain_chunk; [exact HY|exact (SH_ne_eq x1 y1 NEX RY)]|]. intros acc1 z1 z2 HZ.
    apply bwp_bind. apply (bwp_mark d); [exact HZ|]. intros HM. apply bwp_ret.
    exact (HQ (acc1, l1, t1, w1) _ _ z1 z2 HZ HM). }
  destruct (sc_lws u1); [destruct (negb lb); [|destruct (tb =? 0)%N]|]; exact (HW _ _ _ _).
Qed.

(* the contract *)
Theorem scan_plain_scalar_ok : shf_scan_plain_scalar d.
Proof.
  unfold shf_scan_plain_scalar. intros F1 F2 s1 s2 H N0.
  rewrite (scan_plain_scalar_eq sops F1), (scan_plain_scalar_eq sops F2).
  apply bwp_bind. apply (bwp_unroll_non_block_indents d); [exact H|]. intros u1 u2 HU RU.
  apply bwp_bind. apply bwp_get. cbv beta zeta. sh_sync HU.
  match goal with |- swp _ (if ?b then _ else _) _ _ _ _ => destruct b end; [apply bwp_err_l|].
  eapply (bwp_call d); [apply shf_plain_go; [apply MS_refl|exact HU|apply MS_refl]|].
  intros r1 r2 v1 v2 [EF ME] HV.
  apply bwp_bind. apply bwp_get. cbv beta. sh_sync HV.
  apply bwp_bind.
  match goal with |- swp _ _ _ ?Q _ _ => assert (HQ : forall w1 w2, SH d w1 w2 -> Q tt w1 tt w2) end.
  { intros w1 w2 HW. cbv beta. rewrite <- EF. destruct (fst r1); [apply bwp_err_l|].
    apply (bwp_ret_bpost d); [|exact HW]. apply TS_mk. apply SPS_mk; [apply MS_refl|exact ME]. }
  destruct (sc_lws v1).
  - apply (bwp_allow_simple_key d); [exact HV|]. intros w1 w2 HW _. apply HQ. exact HW.
  - apply bwp_ret. apply HQ. exact HV.
Qed.

End BrkPlain.

Print Assumptions scan_plain_scalar_ok.
