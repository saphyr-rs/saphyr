(* C11 — the scanner's flow level and the flow collection tokens it emits, for EVERY input (any Input back-end, any
   fuel): along the token stream the scanner delivers, the number of unmatched '[' / '{' tokens never exceeds
   flow_level, and flow_level never exceeds FLOW_LEVEL_MAX.  Hence [tok_flow_max] of every scanned token stream is at
   most FLOW_LEVEL_MAX — "flow nesting is bounded" as a statement about text.

   The judgment [neu m] says that a run of [m] that returns normally leaves flow_level alone and changes the token
   queue only by inserting tokens that are not a '[' / '{' token.  It needs no precondition.  The character-level
   scanners are neutral because they are frames (Proofs/ScanFrame.v); the functions that write the skeleton are walked
   here. *)
From Coq Require Import List NArith ZArith Bool Lia PeanoNat.
Import ListNotations.
Require Import Parser SBase SPrim SDir SScalar SFetch Drivers Depth ScanFrame DocScan ScanLeaf.
Require DispatchTie.
Local Open Scope nat_scope.

(* 1. token lists: insertion of tokens that are not a real flow collection start *)
Inductive ext : list token -> list token -> Prop :=
| ext_nil : ext [] []
| ext_keep x l l' : ext l l' -> ext (x :: l) (x :: l')
| ext_ins x l l' : real_flow_open x = false -> ext l l' -> ext l (x :: l').

Lemma ext_refl l : ext l l.
Proof. induction l; constructor; auto. Qed.

Lemma ext_trans a b c : ext a b -> ext b c -> ext a c.
Proof.
  intros H1 H2. revert a H1. induction H2 as [|x l l' H IH|x l l' Hx H IH]; intros a H1.
  - exact H1.
  - inversion H1; subst.
    + apply ext_keep. apply IH. assumption.
    + apply ext_ins; [assumption|]. apply IH. assumption.
  - apply ext_ins; [exact Hx|]. apply IH. exact H1.
Qed.

Lemma ext_push l t : real_flow_open t = false -> ext l (l ++ [t]).
Proof. intros H. induction l; cbn; [apply ext_ins; [exact H|constructor]|apply ext_keep; assumption]. Qed.

Lemma ext_insert_at t : real_flow_open t = false ->
  forall n l l', insert_at n t l = Some l' -> ext l l'.
Proof.
  intros H. induction n as [|n IH]; intros l l' E.
  - cbn in E. inversion E; subst. apply ext_ins; [exact H|apply ext_refl].
  - destruct l as [|y r]; cbn in E; [discriminate|].
    destruct (insert_at n t r) as [r'|] eqn:E2; [|discriminate]. inversion E; subst.
    apply ext_keep. apply IH. exact E2.
Qed.

Lemma ext_app_l pre l l' : ext l l' -> ext (pre ++ l) (pre ++ l').
Proof. intros H. induction pre; cbn; [exact H|apply ext_keep; assumption]. Qed.

Lemma ext_app_r l l' x : ext l l' -> ext (l ++ [x]) (l' ++ [x]).
Proof. induction 1; cbn; [apply ext_refl|apply ext_keep; assumption|apply ext_ins; assumption]. Qed.

(* inserting such tokens can only lower the running flow level and its maximum *)
Lemma tok_flow_step_mono c c' m m' t :
  c' <= c -> m' <= m ->
  fst (tok_flow_step (c', m') t) <= fst (tok_flow_step (c, m) t)
  /\ snd (tok_flow_step (c', m') t) <= snd (tok_flow_step (c, m) t).
Proof.
  intros Hc Hm. unfold tok_flow_step. destruct (real_flow_open t); [cbn; lia|].
  destruct (flow_close t); cbn; lia.
Qed.

Lemma tok_flow_step_nonopen c m t :
  real_flow_open t = false -> fst (tok_flow_step (c, m) t) <= c /\ snd (tok_flow_step (c, m) t) = m.
Proof. intros H. unfold tok_flow_step. rewrite H. destruct (flow_close t); cbn; lia. Qed.

Lemma ext_flow_run l l' : ext l l' -> forall c c' m m',
  c' <= c -> m' <= m ->
  fst (tok_flow_run l' (c', m')) <= fst (tok_flow_run l (c, m))
  /\ snd (tok_flow_run l' (c', m')) <= snd (tok_flow_run l (c, m)).
Proof.
  unfold tok_flow_run. induction 1 as [|x l l' H IH|x l l' Hx H IH]; intros c c' m m' Hc Hm.
  - cbn. lia.
  - cbn [fold_left]. destruct (tok_flow_step_mono c c' m m' x Hc Hm) as [A B].
    destruct (tok_flow_step (c', m') x) as [c1' m1'], (tok_flow_step (c, m) x) as [c1 m1]. apply IH; assumption.
  - cbn [fold_left]. destruct (tok_flow_step_nonopen c' m' x Hx) as [A B].
    destruct (tok_flow_step (c', m') x) as [c1' m1']. cbn [fst snd] in A, B. apply IH; lia.
Qed.

Lemma tok_flow_run_app a b cm : tok_flow_run (a ++ b) cm = tok_flow_run b (tok_flow_run a cm).
Proof. unfold tok_flow_run. apply fold_left_app. Qed.

Lemma tok_flow_run_snd_ge l : forall c m, m <= snd (tok_flow_run l (c, m)).
Proof.
  unfold tok_flow_run. induction l as [|t r IH]; intros c m; [apply le_n|]. cbn [fold_left].
  unfold tok_flow_step at 2. destruct (real_flow_open t); [|destruct (flow_close t)];
    (etransitivity; [|apply IH]); lia.
Qed.

(* 2. the judgment *)
Section Scan.
Context {I : Type} (ops : InputOps I).
Notation M := (@M I).
Notation st := (sc I).

Definition fe (s s' : st) : Prop := sc_flow_level s' = sc_flow_level s /\ ext (sc_tokens s) (sc_tokens s').

Lemma fe_refl s : fe s s.
Proof. split; [reflexivity|apply ext_refl]. Qed.
Lemma fe_trans a b c : fe a b -> fe b c -> fe a c.
Proof. intros [A1 A2] [B1 B2]. split; [congruence|eapply ext_trans; eauto]. Qed.

Definition neu {A} (m : M A) : Prop := forall s a s', m s = Ok (a, s') -> fe s s'.

Lemma neu_bind {A B} (m : M A) (f : A -> M B) : neu m -> (forall a, neu (f a)) -> neu (bind m f).
Proof.
  intros Hm Hf s b s' H. unfold bind in H. destruct (m s) as [[a s1]| | |] eqn:E; try discriminate.
  eapply fe_trans; [eapply Hm; exact E|eapply Hf; exact H].
Qed.
Lemma neu_modify (f : st -> st) : (forall s, fe s (f s)) -> neu (modify f).
Proof. intros Hf s a s' H. inversion H; subst. apply Hf. Qed.
Lemma neu_errk {A} e mk : neu (fun _ : st => @Err (A * st) e mk).
Proof. intros s a s' H. discriminate. Qed.

(* a frame (Proofs/ScanFrame.v) leaves flow_level and the token queue as they are *)
Lemma frame_fe s s' : frame s s' -> fe s s'.
Proof. intros (_ & Kf & _ & Kt & _). split; [exact Kf|rewrite Kt; apply ext_refl]. Qed.
Lemma neu_of_Fr {A} (m : M A) : Fr m -> neu m.
Proof. intros H s a s' E. apply frame_fe, (H s a s' E). Qed.

(* pointwise variant, for the few functions that read the state with [get] and write it back with [put] *)
Definition neuS {A} (m : M A) (s : st) : Prop := forall a s', m s = Ok (a, s') -> fe s s'.
Lemma neuS_of_neu {A} (m : M A) s : neu m -> neuS m s.
Proof. intros H a s' E. eapply H; exact E. Qed.
Lemma neuS_get_bind {A} (f : st -> M A) s : neuS (f s) s -> neuS (bind get f) s.
Proof. intros H a s' E. unfold neuS in H. eapply H. exact E. Qed.
Lemma neuS_ret_bind {A B} (v : A) (f : A -> M B) s : neuS (f v) s -> neuS (bind (ret v) f) s.
Proof. intros H a s' E. unfold neuS in H. eapply H. exact E. Qed.
Lemma neuS_put_bind {A} s0 (f : unit -> M A) s : fe s s0 -> neuS (f tt) s0 -> neuS (bind (put s0) f) s.
Proof. intros H1 H2 a s' E. eapply fe_trans; [exact H1|]. unfold neuS in H2. eapply H2. exact E. Qed.
Lemma neuS_put s0 s : fe s s0 -> neuS (put s0) s.
Proof. intros H a s' E. inversion E; subst. exact H. Qed.
Lemma neuS_bind_neu {A B} (m : M A) (f : A -> M B) s : neu m -> (forall a s1, neuS (f a) s1) -> neuS (bind m f) s.
Proof.
  intros Hm Hf b s' H. unfold bind in H. destruct (m s) as [[a s1]| | |] eqn:E; try discriminate.
  eapply fe_trans; [eapply Hm; exact E|eapply Hf; exact H].
Qed.
Lemma neuS_stuck_bind_fail {A B} e mk (f : A -> M B) s : neuS (bind (fail e mk) f) s.
Proof. intros a s' E. discriminate. Qed.
Lemma neuS_stuck_bind_panic {A B} n (f : A -> M B) s : neuS (bind (panic n) f) s.
Proof. intros a s' E. discriminate. Qed.
Lemma neu_of_neuS {A} (m : M A) : (forall s, neuS m s) -> neu m.
Proof. intros H s a s' E. eapply H; exact E. Qed.

(* a state obtained by setters that leave flow_level and the token queue alone *)
Ltac fe_solve :=
  cbv beta;
  repeat match goal with |- fe _ (match ?x with _ => _ end) => destruct x end;
  (split; cbn; [reflexivity | first [apply ext_refl | idtac]]).

(* the walk over a function of Model/SPrim.v or Model/SFetch.v that is not a frame: what it calls is either a frame
   ([ret], [fail], [get] and the like included), found in the hint database [fr] of ScanFrame.v, or is found in [neu] *)
Create HintDb neu.
Ltac neu_known := first [solve [eauto 3 with neu] | apply neu_of_Fr; solve [auto with fr]].
Ltac neu1 :=
  lazymatch goal with
  | |- neu (bind _ _) => apply neu_bind; [|intros ?]
  | |- neu (ret _) => apply neu_of_Fr, Fr_ret
  | |- neu (fail _ _) => apply neu_of_Fr, Fr_fail
  | |- neu (gets _) => apply neu_of_Fr, Fr_gets
  | |- neu (modify _) => apply neu_modify; intros ?; fe_solve
  | |- neu (match ?x with _ => _ end) => destruct x
  | |- neu _ => neu_known
  end.
Ltac neu_go := repeat (lazy zeta; neu1).

(* 3. the character-level scanners are frames *)
Lemma neu_look n : neu (look ops n).
Proof. apply neu_of_Fr, Fr_look. Qed.
Lemma neu_peek : neu (SPrim.peek ops).
Proof. apply neu_of_Fr, Fr_peek. Qed.
Lemma neu_look_ch : neu (look_ch ops).
Proof. apply neu_of_Fr, Fr_look_ch. Qed.
Lemma neu_in_skip : neu (in_skip ops).
Proof. apply neu_of_Fr, Fr_in_skip. Qed.
Lemma neu_in_skip_n n : neu (in_skip_n ops n).
Proof. apply neu_of_Fr, Fr_in_skip_n. Qed.
Lemma neu_raw_read : neu (raw_read ops).
Proof. apply neu_of_Fr, Fr_raw_read. Qed.
Lemma neu_buf_is_empty : neu (buf_is_empty ops).
Proof. apply neu_of_Fr, Fr_buf_is_empty. Qed.
Lemma neu_assert_buflen n site : neu (assert_buflen ops n site).
Proof. apply neu_of_Fr, Fr_assert_buflen. Qed.

Lemma neu_next_char_is c : neu (next_char_is ops c).
Proof. apply neu_of_Fr, Fr_next_char_is. Qed.
Lemma neu_nth_char_is n c : neu (nth_char_is ops n c).
Proof. apply neu_of_Fr, Fr_nth_char_is. Qed.
Lemma neu_next_2_are a b : neu (next_2_are ops a b).
Proof. apply neu_of_Fr, Fr_next_2_are. Qed.
Lemma neu_next_3_are a b c : neu (next_3_are ops a b c).
Proof. apply neu_of_Fr, Fr_next_3_are. Qed.
Lemma neu_next_is_document_indicator : neu (next_is_document_indicator ops).
Proof. apply neu_of_Fr, Fr_next_is_document_indicator. Qed.
Lemma neu_next_is_document_start : neu (next_is_document_start ops).
Proof. apply neu_of_Fr, Fr_next_is_document_start. Qed.
Lemma neu_next_is_document_end : neu (next_is_document_end ops).
Proof. apply neu_of_Fr, Fr_next_is_document_end. Qed.
Lemma neu_next_is p : neu (next_is ops p).
Proof. apply neu_of_Fr, Fr_next_is. Qed.
Lemma neu_next_can_be_plain_scalar b : neu (next_can_be_plain_scalar ops b).
Proof. apply neu_of_Fr, Fr_next_can_be_plain_scalar. Qed.

Lemma neu_in_skip_ws_to_eol fuel : forall stb tab ws n, neu (in_skip_ws_to_eol ops fuel stb tab ws n).
Proof. intros. apply neu_of_Fr, Fr_in_skip_ws_to_eol. Qed.
Lemma neu_in_skip_while_non_breakz fuel : neu (in_skip_while_non_breakz ops fuel).
Proof. apply neu_of_Fr, Fr_in_skip_while_non_breakz. Qed.
Lemma neu_in_skip_while_blank fuel : neu (in_skip_while_blank ops fuel).
Proof. apply neu_of_Fr, Fr_in_skip_while_blank. Qed.
Lemma neu_in_fetch_while_alpha fuel acc : neu (in_fetch_while_alpha ops fuel acc).
Proof. apply neu_of_Fr, Fr_in_fetch_while_alpha. Qed.

Lemma neu_mark : neu (@mark I).
Proof. apply neu_of_Fr, Fr_mark. Qed.
Lemma neu_adv_mark n : neu (@adv_mark I n).
Proof. apply neu_of_Fr, Fr_adv_mark. Qed.
Lemma neu_skip_blank : neu (skip_blank ops).
Proof. apply neu_of_Fr, Fr_skip_blank. Qed.
Lemma neu_skip_non_blank : neu (skip_non_blank ops).
Proof. apply neu_of_Fr, Fr_skip_non_blank. Qed.
Lemma neu_skip_n_non_blank n : neu (skip_n_non_blank ops n).
Proof. apply neu_of_Fr, Fr_skip_n_non_blank. Qed.
Lemma neu_skip_nl : neu (skip_nl ops).
Proof. apply neu_of_Fr, Fr_skip_nl. Qed.
Lemma neu_skip_linebreak : neu (skip_linebreak ops).
Proof. apply neu_of_Fr, Fr_skip_linebreak. Qed.
Lemma neu_skip_break : neu (skip_break ops).
Proof. apply neu_of_Fr, Fr_skip_break. Qed.

Lemma neu_allow_simple_key : neu (@allow_simple_key I).
Proof. apply neu_of_Fr, Fr_allow_simple_key. Qed.
Lemma neu_flow_level : neu (@flow_level I).
Proof. apply neu_of_Fr, Fr_flow_level. Qed.
Lemma neu_is_within_block : neu (@is_within_block I).
Proof. apply neu_of_Fr, Fr_is_within_block. Qed.
Lemma neu_unroll_non_block_indents : neu (@unroll_non_block_indents I).
Proof. apply neu_of_Fr, Fr_unroll_non_block_indents. Qed.
Lemma neu_skip_to_next_token fuel : neu (skip_to_next_token ops fuel).
Proof. apply neu_of_Fr, Fr_skip_to_next_token. Qed.
Lemma neu_skip_yaml_whitespace fuel : neu (skip_yaml_whitespace ops fuel).
Proof. apply neu_of_Fr, Fr_skip_yaml_whitespace. Qed.

Lemma neu_scan_uri_escapes mk : neu (scan_uri_escapes ops mk).
Proof. apply neu_of_Fr, Fr_scan_uri_escapes. Qed.
Lemma neu_scan_tag_handle F d mk : neu (scan_tag_handle ops F d mk).
Proof. apply neu_of_Fr, Fr_scan_tag_handle. Qed.
Lemma neu_uri_loop F p mk acc : neu (uri_loop ops F p mk acc).
Proof. apply neu_of_Fr, Fr_uri_loop. Qed.
Lemma neu_scan_tag_prefix F mk : neu (scan_tag_prefix ops F mk).
Proof. apply neu_of_Fr, Fr_scan_tag_prefix. Qed.
Lemma neu_scan_verbatim_tag F mk : neu (scan_verbatim_tag ops F mk).
Proof. apply neu_of_Fr, Fr_scan_verbatim_tag. Qed.
Lemma neu_scan_tag_shorthand_suffix F h mk : neu (scan_tag_shorthand_suffix ops F h mk).
Proof. apply neu_of_Fr, Fr_scan_tag_shorthand_suffix. Qed.
Lemma neu_scan_version_directive_number F mk : neu (scan_version_directive_number ops F mk).
Proof. apply neu_of_Fr, Fr_scan_version_directive_number. Qed.
Lemma neu_scan_version_directive_value F mk : neu (scan_version_directive_value ops F mk).
Proof. apply neu_of_Fr, Fr_scan_version_directive_value. Qed.
Lemma neu_scan_tag_directive_value F mk : neu (scan_tag_directive_value ops F mk).
Proof. apply neu_of_Fr, Fr_scan_tag_directive_value. Qed.
Lemma neu_scan_directive_name F : neu (scan_directive_name ops F).
Proof. apply neu_of_Fr, Fr_scan_directive_name. Qed.

Lemma neu_col_lt_indent : neu (@col_lt_indent I).
Proof. apply neu_of_Fr, Fr_col_lt_indent. Qed.
Lemma neu_col : neu (@col I).
Proof. apply neu_of_Fr, Fr_col. Qed.
Lemma neu_read_hex n : forall i acc start, neu (read_hex ops n i acc start).
Proof. intros. apply neu_of_Fr, Fr_read_hex. Qed.
Lemma neu_resolve_escape start : neu (resolve_escape ops start).
Proof. apply neu_of_Fr, Fr_resolve_escape. Qed.
Lemma neu_consume_nonws fuel : forall single acc start, neu (consume_nonws ops fuel single acc start).
Proof. intros. apply neu_of_Fr, Fr_consume_nonws. Qed.
Lemma neu_flow_blanks fuel : forall lbl lb tb ws, neu (flow_blanks ops fuel lbl lb tb ws).
Proof. intros. apply neu_of_Fr, Fr_flow_blanks. Qed.
Lemma neu_plain_chunk fuel : forall j acc, neu (plain_chunk ops fuel j acc).
Proof. intros. apply neu_of_Fr, Fr_plain_chunk. Qed.
Lemma neu_plain_blanks F fuel : forall indent start lb tb ws, neu (plain_blanks ops F fuel indent start lb tb ws).
Proof. intros. apply neu_of_Fr, Fr_plain_blanks. Qed.
Lemma neu_scan_block_scalar_content_line F acc : neu (scan_block_scalar_content_line ops F acc).
Proof. apply neu_of_Fr, Fr_scan_block_scalar_content_line. Qed.
Lemma neu_skip_spaces_to fuel : forall indent cb, neu (skip_spaces_to ops fuel indent cb).
Proof. intros. apply neu_of_Fr, Fr_skip_spaces_to. Qed.
Lemma neu_skip_block_scalar_indent F fuel : forall indent breaks, neu (skip_block_scalar_indent ops F fuel indent breaks).
Proof. intros. apply neu_of_Fr, Fr_skip_block_scalar_indent. Qed.
Lemma neu_skip_first_line_indent F fuel : forall maxi breaks, neu (skip_first_line_indent ops F fuel maxi breaks).
Proof. intros. apply neu_of_Fr, Fr_skip_first_line_indent. Qed.

(* 4. Model/SPrim.v: the functions that write the skeleton *)
Lemma neu_push_tok t : real_flow_open t = false -> neu (@push_tok I t).
Proof.
  intros Ht. unfold push_tok. apply neu_modify. intros s. split; cbn; [reflexivity|apply ext_push; exact Ht].
Qed.
Lemma neu_insert_token pos t : real_flow_open t = false -> neu (@insert_token I pos t).
Proof.
  intros Ht s a s' H. unfold insert_token in H.
  destruct (insert_at (N.to_nat pos) t (sc_tokens s)) as [l|] eqn:E; [|discriminate].
  inversion H; subst. split; cbn; [reflexivity|eapply ext_insert_at; eauto].
Qed.
Lemma neu_disallow_simple_key : neu (@disallow_simple_key I).
Proof. unfold disallow_simple_key. neu_go. Qed.
Lemma neu_in_flow : neu (@in_flow I).
Proof. unfold in_flow. neu_go. Qed.
Hint Resolve neu_disallow_simple_key : neu.

(* tokens that are certainly not a '[' / '{' token *)
Lemma nonopen_kind sp t :
  match t with TFlowSequenceStart | TFlowMappingStart => False | _ => True end -> real_flow_open (sp, t) = false.
Proof. destruct t; cbn; tauto. Qed.
Lemma nonopen_synthetic mk : real_flow_open (span_empty mk, TFlowMappingStart) = false.
Proof. unfold real_flow_open, span_is_empty, span_empty. cbn. rewrite N.eqb_refl. reflexivity. Qed.

Ltac neuS1 :=
  lazymatch goal with
  | |- neuS (bind get _) _ => apply neuS_get_bind
  | |- neuS (bind (ret _) _) _ => apply neuS_ret_bind
  | |- neuS (bind (put _) _) _ => apply neuS_put_bind; [fe_solve|]
  | |- neuS (bind (fail _ _) _) _ => apply neuS_stuck_bind_fail
  | |- neuS (bind (panic _) _) _ => apply neuS_stuck_bind_panic
  | |- neuS (bind (match ?x with _ => _ end) _) _ => destruct x
  | |- neuS (match ?x with _ => _ end) _ => destruct x
  | |- neuS (put _) _ => apply neuS_put; fe_solve
  | |- neuS (bind _ _) _ => apply neuS_bind_neu; [neu_known|intros ? ?]
  | |- neuS _ _ => apply neuS_of_neu; neu_known
  end.
Ltac neuS_go := repeat (lazy zeta; neuS1).

Lemma neu_roll_indent col number tk mk :
  match tk with TFlowSequenceStart | TFlowMappingStart => False | _ => True end ->
  neu (@roll_indent I col number tk mk).
Proof.
  intros Hk. pose proof (nonopen_kind (span_empty mk) tk Hk) as Hn. cbn [span_empty] in Hn.
  pose proof (neu_push_tok _ Hn).
  assert (forall pos, neu (@insert_token I pos (span_empty mk, tk))) by (intros; apply neu_insert_token; exact Hn).
  apply neu_of_neuS. intros s. unfold roll_indent. neuS_go.
Qed.

Lemma neu_unroll_indent_go fuel col : neu (@unroll_indent_go I fuel col).
Proof.
  induction fuel as [|fuel IH]; cbn [unroll_indent_go]; [apply neu_of_Fr, Fr_oof|].
  assert (forall mk, neu (@push_tok I (span_empty mk, TBlockEnd))) by (intros; apply neu_push_tok; reflexivity).
  apply neu_of_neuS. intros s. neuS_go.
Qed.
Hint Resolve neu_unroll_indent_go : neu.
Lemma neu_unroll_indent col : neu (@unroll_indent I col).
Proof. unfold unroll_indent. neu_go. Qed.
Lemma neu_roll_one_col_indent : neu (@roll_one_col_indent I).
Proof. apply neu_of_neuS. intros s. unfold roll_one_col_indent. neuS_go. Qed.
Lemma neu_save_simple_key : neu (@save_simple_key I).
Proof. apply neu_of_neuS. intros s. unfold save_simple_key. neuS_go. Qed.
Lemma neu_remove_simple_key : neu (@remove_simple_key I).
Proof. apply neu_of_neuS. intros s. unfold remove_simple_key. neuS_go. Qed.
Lemma neu_stale_simple_keys : neu (@stale_simple_keys I).
Proof. apply neu_of_neuS. intros s. unfold stale_simple_keys. neuS_go. Qed.
Lemma neu_end_implicit_mapping mk : neu (@end_implicit_mapping I mk).
Proof.
  assert (neu (@push_tok I (span_empty mk, TFlowMappingEnd))) by (apply neu_push_tok; reflexivity).
  apply neu_of_neuS. intros s. unfold end_implicit_mapping. neuS_go.
Qed.
Hint Resolve neu_unroll_indent neu_roll_one_col_indent neu_save_simple_key neu_remove_simple_key
  neu_stale_simple_keys neu_end_implicit_mapping : neu.

(* 5. the token-producing scanners return a token that is not a '[' / '{' token *)
Definition retk (m : M token) : Prop := forall s t s', m s = Ok (t, s') -> real_flow_open t = false.

Lemma leaf_not_flow_open t : leaf t -> real_flow_open t = false.
Proof. destruct t as [sp []]; intros H; first [reflexivity|discriminate H]. Qed.
Lemma retk_leaf (m : M token) : Res leaf m -> retk m.
Proof. apply Res_impl, leaf_not_flow_open. Qed.

Lemma retk_scan_version_directive_value F mk : retk (scan_version_directive_value ops F mk).
Proof. apply retk_leaf, leaf_scan_version_directive_value. Qed.
Lemma retk_scan_tag_directive_value F mk : retk (scan_tag_directive_value ops F mk).
Proof. apply retk_leaf, leaf_scan_tag_directive_value. Qed.

(* a scanned token, frame and leaf, handed to the continuation that queues it *)
Lemma neu_bind_tok (m : M token) (f : token -> M unit) :
  Fr m -> Res leaf m -> (forall t, real_flow_open t = false -> neu (f t)) -> neu (bind m f).
Proof.
  intros Hm Hk Hf s b s' H. unfold bind in H. destruct (m s) as [[t s1]| | |] eqn:E; try discriminate.
  eapply fe_trans; [eapply neu_of_Fr; [exact Hm|exact E]|]. eapply Hf; [eapply retk_leaf; [exact Hk|exact E]|exact H].
Qed.

(* 6. Model/SFetch.v: everything but the two flow-collection fetchers is neutral *)
Hint Extern 1 (real_flow_open _ = false) => first [reflexivity | apply nonopen_synthetic] : neu.
Hint Extern 5 => exact Logic.I : neu.
Hint Resolve neu_push_tok neu_insert_token neu_roll_indent : neu.

Lemma neu_fetch_stream_start : neu (@fetch_stream_start I).
Proof.
  apply neu_of_neuS. intros s. unfold fetch_stream_start. apply neuS_get_bind. lazy zeta. apply neuS_put.
  split; cbn; [reflexivity|]. apply ext_push. reflexivity.
Qed.
Lemma neu_fetch_stream_end : neu (@fetch_stream_end I).
Proof.
  unfold fetch_stream_end. apply neu_bind.
  - apply neu_modify. intros s. destruct (m_col (sc_mark s) =? 0)%N; [apply fe_refl|fe_solve].
  - intros _. apply neu_of_neuS. intros s. neuS_go.
Qed.
Lemma neu_fetch_directive F : neu (fetch_directive ops F).
Proof.
  unfold fetch_directive. do 3 (apply neu_bind; [neu_known|intros _]).
  apply neu_bind_tok; [apply Fr_scan_directive|apply leaf_scan_directive|]. intros t Ht. apply neu_push_tok. exact Ht.
Qed.
Lemma neu_fetch_tag F : neu (fetch_tag ops F).
Proof.
  unfold fetch_tag. do 2 (apply neu_bind; [neu_known|intros _]).
  apply neu_bind_tok; [apply Fr_scan_tag|apply leaf_scan_tag|]. intros t Ht. apply neu_push_tok. exact Ht.
Qed.
Lemma neu_fetch_anchor F alias : neu (fetch_anchor ops F alias).
Proof.
  unfold fetch_anchor. do 2 (apply neu_bind; [neu_known|intros _]).
  apply neu_bind_tok; [apply Fr_scan_anchor|apply leaf_scan_anchor|]. intros t Ht. apply neu_push_tok. exact Ht.
Qed.
Lemma neu_fetch_flow_entry F : neu (fetch_flow_entry ops F).
Proof. unfold fetch_flow_entry. neu_go. Qed.
Lemma neu_fetch_block_entry F : neu (fetch_block_entry ops F).
Proof. unfold fetch_block_entry. neu_go. Qed.
Lemma neu_fetch_document_indicator t :
  match t with TFlowSequenceStart | TFlowMappingStart => False | _ => True end ->
  neu (fetch_document_indicator ops t).
Proof.
  intros Hk. unfold fetch_document_indicator. neu_go. apply neu_push_tok. apply nonopen_kind. exact Hk.
Qed.
Lemma neu_fetch_block_scalar F literal : neu (fetch_block_scalar ops F literal).
Proof.
  unfold fetch_block_scalar. do 2 (apply neu_bind; [neu_known|intros _]).
  apply neu_bind_tok; [apply Fr_scan_block_scalar|apply leaf_scan_block_scalar|]. intros t Ht. apply neu_push_tok. exact Ht.
Qed.
Lemma neu_fetch_flow_scalar F single : neu (fetch_flow_scalar ops F single).
Proof.
  unfold fetch_flow_scalar. do 2 (apply neu_bind; [neu_known|intros _]).
  apply neu_bind_tok; [apply Fr_scan_flow_scalar|apply leaf_scan_flow_scalar|]. intros t Ht. neu_go.
Qed.
Lemma neu_fetch_plain_scalar F : neu (fetch_plain_scalar ops F).
Proof.
  unfold fetch_plain_scalar. do 2 (apply neu_bind; [neu_known|intros _]).
  apply neu_bind_tok; [apply Fr_scan_plain_scalar|apply leaf_scan_plain_scalar|]. intros t Ht. apply neu_push_tok. exact Ht.
Qed.
Lemma neu_fetch_key F : neu (fetch_key ops F).
Proof.
  unfold fetch_key. neu_go.
  all: try (apply neu_modify; intros s0; destruct (sc_ifms s0) as [|[] ?]; fe_solve).
Qed.
Lemma neu_fetch_value F : neu (fetch_value ops F).
Proof. unfold fetch_value. neu_go. Qed.
Hint Resolve neu_fetch_value : neu.
Lemma neu_fetch_flow_value F : neu (fetch_flow_value ops F).
Proof. unfold fetch_flow_value. neu_go. Qed.

(* 7. the invariant: unmatched '[' / '{' tokens delivered or queued <= flow_level <= FLOW_LEVEL_MAX *)
(* [pre] = the tokens already delivered; [d] = a slack of -1 between increase_flow_level and the push of the '[' / '{'
   token, of +1 between decrease_flow_level and the push of the ']' / '}' token, 0 otherwise *)
Definition G (pre : list token) (d : Z) (s : st) : Prop :=
  let r := tok_flow_run (pre ++ sc_tokens s) (0, 0) in
  (Z.of_nat (fst r) <= Z.of_N (sc_flow_level s) + d)%Z
  /\ snd r <= N.to_nat FLOW_LEVEL_MAX
  /\ (sc_flow_level s <= FLOW_LEVEL_MAX)%N.

Definition kpd {A} (m : M A) (d d' : Z) : Prop :=
  forall pre s a s', m s = Ok (a, s') -> G pre d s -> G pre d' s'.

Lemma G_fe pre d s s' : fe s s' -> G pre d s -> G pre d s'.
Proof.
  intros [HL HE] (A & B & C). unfold G. rewrite HL.
  destruct (ext_flow_run _ _ (ext_app_l pre _ _ HE) 0 0 0 0 (le_n 0) (le_n 0)) as [E1 E2].
  cbv zeta in *. repeat split; [lia|lia|exact C].
Qed.

Lemma kpd_neu {A} (m : M A) d : neu m -> kpd m d d.
Proof. intros H pre s a s' E HG. eapply G_fe; [eapply H; exact E|exact HG]. Qed.

Lemma kpd_bind {A B} (m : M A) (f : A -> M B) d1 d2 d3 :
  kpd m d1 d2 -> (forall a, kpd (f a) d2 d3) -> kpd (bind m f) d1 d3.
Proof.
  intros Hm Hf pre s b s' H HG. unfold bind in H. destruct (m s) as [[a s1]| | |] eqn:E; try discriminate.
  eapply Hf; [exact H|]. eapply Hm; [exact E|exact HG].
Qed.

Lemma kpd_increase : kpd (@increase_flow_level I) 0 (-1).
Proof.
  intros pre s a s' H (A & B & C). unfold increase_flow_level, bind, get, put in H.
  destruct (sc_flow_level s =? FLOW_LEVEL_MAX)%N eqn:E; [discriminate|]. apply N.eqb_neq in E.
  inversion H; subst; clear H. unfold G. cbn [sc_flow_level sc_tokens set_fl set_sks set_struct].
  cbv zeta in *. repeat split; lia.
Qed.

Lemma kpd_decrease : kpd (@decrease_flow_level I) 0 1.
Proof.
  intros pre s a s' H (A & B & C). unfold decrease_flow_level, bind, get, put, ret, panic in H.
  destruct (0 <? sc_flow_level s)%N eqn:E.
  - destruct (sc_sks s); [discriminate|]. inversion H; subst; clear H. apply N.ltb_lt in E.
    unfold G. cbn [sc_flow_level sc_tokens set_fl set_sks set_struct]. cbv zeta in *. repeat split; lia.
  - inversion H; subst; clear H. unfold G. cbv zeta in *. repeat split; lia.
Qed.

Lemma tok_flow_run_snoc l t cm : tok_flow_run (l ++ [t]) cm = tok_flow_step (tok_flow_run l cm) t.
Proof. unfold tok_flow_run. rewrite fold_left_app. reflexivity. Qed.

(* the '[' / '{' token, pushed after flow_level has been raised *)
Lemma kpd_push_after_inc t : kpd (@push_tok I t) (-1) 0.
Proof.
  intros pre s a s' H (A & B & C). unfold push_tok, modify in H. inversion H; subst; clear H.
  unfold G. cbn [sc_flow_level sc_tokens set_tokens upd]. rewrite app_assoc, tok_flow_run_snoc.
  cbv zeta in *. destruct (tok_flow_run (pre ++ sc_tokens s) (0, 0)) as [c m]. cbn [fst snd] in *.
  assert (HM : (Z.of_N (sc_flow_level s) <= Z.of_N FLOW_LEVEL_MAX)%Z) by lia.
  assert (HM' : Z.of_nat (N.to_nat FLOW_LEVEL_MAX) = Z.of_N FLOW_LEVEL_MAX) by lia.
  unfold tok_flow_step. destruct (real_flow_open t); [|destruct (flow_close t)]; cbn [fst snd]; repeat split; lia.
Qed.

(* the ']' / '}' token, pushed after flow_level has been lowered *)
Lemma kpd_push_after_dec t : real_flow_open t = false -> flow_close t = true -> kpd (@push_tok I t) 1 0.
Proof.
  intros HO HC pre s a s' H (A & B & C). unfold push_tok, modify in H. inversion H; subst; clear H.
  unfold G. cbn [sc_flow_level sc_tokens set_tokens upd]. rewrite app_assoc, tok_flow_run_snoc.
  cbv zeta in *. destruct (tok_flow_run (pre ++ sc_tokens s) (0, 0)) as [c m]. cbn [fst snd] in *.
  unfold tok_flow_step. rewrite HO, HC. cbn [fst snd]. repeat split; lia.
Qed.

Create HintDb kpd.
Ltac kpd1 :=
  lazymatch goal with
  | |- kpd (bind _ _) _ _ => eapply kpd_bind; [kpd1|intros ?]
  | |- kpd increase_flow_level _ _ => apply kpd_increase
  | |- kpd decrease_flow_level _ _ => apply kpd_decrease
  | |- kpd (push_tok _) (-1)%Z _ => apply kpd_push_after_inc
  | |- kpd (push_tok _) 1%Z _ => apply kpd_push_after_dec
  | |- kpd (match ?x with _ => _ end) _ _ => destruct x
  | |- kpd _ _ _ => first [ solve [eauto 2 with kpd] | apply kpd_neu; solve [neu_go] ]
  end.
Ltac kpd_go := repeat kpd1.

Lemma kpd_fetch_flow_collection_start F seq : kpd (fetch_flow_collection_start ops F seq) 0 0.
Proof. unfold fetch_flow_collection_start. kpd_go. Qed.

(* /repo 88700d3: the closer is first compared with the level it closes; that test only reads the state *)
Lemma neu_check_flow_closer seq : neu (@check_flow_closer I seq).
Proof. unfold check_flow_closer. neu_go. Qed.
Hint Resolve neu_check_flow_closer : neu.

Lemma kpd_fetch_flow_collection_end F seq : kpd (fetch_flow_collection_end ops F seq) 0 0.
Proof.
  unfold fetch_flow_collection_end.
  eapply kpd_bind; [apply kpd_neu, neu_check_flow_closer|intros ?].
  kpd_go; destruct seq; reflexivity.
Qed.
Hint Resolve neu_fetch_stream_start neu_fetch_stream_end neu_fetch_directive : neu.
Hint Extern 1 (neu (fetch_document_indicator _ _)) => apply neu_fetch_document_indicator; exact Logic.I : neu.

Lemma kpd_fetch_next_token F : kpd (fetch_next_token ops F) 0 0.
Proof.
  rewrite DispatchTie.fetch_next_token_shape. kpd_go.
  apply DispatchTie.dispatch_cases. intros [] _; cbn [DispatchTie.run_dact].
  - apply kpd_fetch_flow_collection_start.
  - apply kpd_fetch_flow_collection_end.
  - apply kpd_neu, neu_fetch_flow_entry.
  - apply kpd_neu, neu_fetch_block_entry.
  - apply kpd_neu, neu_fetch_key.
  - apply kpd_neu, neu_fetch_value.
  - apply kpd_neu, neu_fetch_flow_value.
  - apply kpd_neu, neu_fetch_anchor.
  - apply kpd_neu, neu_fetch_tag.
  - apply kpd_neu, neu_fetch_block_scalar.
  - apply kpd_neu, neu_fetch_flow_scalar.
  - apply kpd_neu, neu_fetch_plain_scalar.
  - apply kpd_neu, neu_of_Fr, Fr_fail.
Qed.
Hint Resolve kpd_fetch_next_token : kpd.

Lemma kpd_fetch_more_tokens F fuel : kpd (fetch_more_tokens ops F fuel) 0 0.
Proof. induction fuel as [|fuel IH]; cbn [fetch_more_tokens]; [intros pre s a s' H; discriminate|]. kpd_go. Qed.

(* next_token: the head of the queue is delivered *)
Lemma next_token_G F pre s o s' :
  next_token ops F s = Ok (o, s') -> G pre 0 s ->
  match o with Some t => G (pre ++ [t]) 0 s' | None => True end.
Proof.
  intros H HG. unfold next_token in H. unfold bind at 1 in H. unfold get at 1 in H.
  destruct (sc_stream_end s); [inversion H; subst; exact Logic.I|].
  unfold bind at 1 in H.
  destruct ((if sc_token_available s then ret tt else fetch_more_tokens ops F F) s) as [[u s1]| | |] eqn:E1; try discriminate.
  assert (HG1 : G pre 0 s1).
  { destruct (sc_token_available s); [inversion E1; subst; exact HG|].
    eapply kpd_fetch_more_tokens; [exact E1|exact HG]. }
  unfold bind at 1 in H. unfold get at 1 in H.
  destruct (sc_tokens s1) as [|t r] eqn:ET; [discriminate|].
  unfold bind at 1 in H. unfold put at 1 in H. unfold bind at 1 in H.
  assert (HG2 : G (pre ++ [t]) 0 (set_tp (sc_tokens_parsed s1 + 1) (set_ta false (set_tokens r s1)))).
  { destruct HG1 as (A & B & C). unfold G in *. cbn [sc_flow_level sc_tokens set_tp set_ta set_tokens set_struct set_flags upd].
    rewrite <- app_assoc. cbn [app]. rewrite ET in *. auto. }
  destruct (snd t); inversion H; subst; exact HG2.
Qed.

(* the Scanner iterator: every token list it delivers, however the run ends *)
Lemma scan_all_G F fuel : forall s acc,
  G (rev acc) 0 s -> tok_flow_max (fst (scan_all ops F fuel s acc)) <= N.to_nat FLOW_LEVEL_MAX.
Proof.
  assert (Hbase : forall s acc, G (rev acc) 0 s -> tok_flow_max (rev acc) <= N.to_nat FLOW_LEVEL_MAX).
  { intros s acc (A & B & C). cbv zeta in B. rewrite tok_flow_run_app in B. unfold tok_flow_max.
    destruct (tok_flow_run (rev acc) (0, 0)) as [c m]. pose proof (tok_flow_run_snd_ge (sc_tokens s) c m). cbn [snd]. lia. }
  induction fuel as [|fuel IH]; intros s acc HG; cbn [scan_all]; [cbn [fst]; eapply Hbase; exact HG|].
  destruct (next_token ops F s) as [[[t|] s']| | |] eqn:E; cbn [fst]; try (eapply Hbase; exact HG).
  apply IH. cbn [rev]. exact (next_token_G F _ _ _ _ E HG).
Qed.

Lemma G_init (i : I) : G [] 0 (init_sc i).
Proof. unfold G, init_sc. cbn. repeat split; lia. Qed.

Theorem scan_flow_level_bounded F fuel (i : I) :
  tok_flow_max (fst (scan_all ops F fuel (init_sc i) [])) <= N.to_nat FLOW_LEVEL_MAX.
Proof. apply scan_all_G. apply G_init. Qed.

(* 8. the tokens of '[' and '{' ARE counted: fetch_flow_collection_start pushes a token with a non-empty span  *)
(*    (so [real_flow_open] holds for it) and raises flow_level by one *)
(* the mark's index never decreases in the functions between the indicator and the push of its token *)
Definition mono {A} (m : M A) : Prop :=
  forall s a s', m s = Ok (a, s') -> (m_index (sc_mark s) <= m_index (sc_mark s'))%N.
Lemma mono_ret {A} (a : A) : mono (ret a).
Proof. intros s x s' H. inversion H; subst. lia. Qed.
Lemma mono_bind {A B} (m : M A) (f : A -> M B) : mono m -> (forall a, mono (f a)) -> mono (bind m f).
Proof.
  intros Hm Hf s b s' H. unfold bind in H. destruct (m s) as [[a s1]| | |] eqn:E; try discriminate.
  pose proof (Hm _ _ _ E). pose proof (Hf _ _ _ _ H). lia.
Qed.
Lemma mono_fail {A} e mk : mono (@fail I A e mk).
Proof. intros s a s' H. discriminate. Qed.
Lemma mono_oof {A} : mono (@oof I A).
Proof. intros s a s' H. discriminate. Qed.
Lemma mono_gets {A} (f : st -> A) : mono (gets f).
Proof. intros s a s' H. inversion H; subst. lia. Qed.
Lemma mono_modify (f : st -> st) : (forall s, (m_index (sc_mark s) <= m_index (sc_mark (f s)))%N) -> mono (modify f).
Proof. intros Hf s a s' H. inversion H; subst. apply Hf. Qed.
Lemma mono_look n : mono (look ops n).
Proof.
  intros s a s' H. unfold look in H. destruct (lookahead ops n (sc_in s)); try discriminate.
  inversion H; subst. cbn. lia.
Qed.
Lemma mono_peekn n : mono (peekn ops n).
Proof.
  intros s a s' H. unfold peekn in H. destruct (peek_nth ops n (sc_in s)); try discriminate.
  inversion H; subst. lia.
Qed.
Ltac mono1 :=
  lazymatch goal with
  | |- mono (bind _ _) => apply mono_bind; [|intros ?]
  | |- mono (ret _) => apply mono_ret
  | |- mono (fail _ _) => apply mono_fail
  | |- mono oof => apply mono_oof
  | |- mono (gets _) => apply mono_gets
  | |- mono (modify _) => apply mono_modify; intros ?; cbn; lia
  | |- mono (match ?x with _ => _ end) => destruct x
  | |- mono _ => solve [eauto 3 using mono_look, mono_peekn]
  end.
Ltac mono_go := repeat (lazy zeta; mono1).
Lemma mono_look_ch : mono (look_ch ops).
Proof. unfold look_ch, SPrim.peek. mono_go. Qed.
Lemma mono_in_skip : mono (in_skip ops).
Proof. unfold in_skip. mono_go. Qed.
Lemma mono_in_skip_ws_to_eol fuel : forall stb tab ws n, mono (in_skip_ws_to_eol ops fuel stb tab ws n).
Proof.
  pose proof mono_look_ch. pose proof mono_in_skip.
  induction fuel as [|fuel IH]; intros stb tab ws n; cbn [in_skip_ws_to_eol]; [apply mono_oof|].
  mono_go.
  all: match goal with |- mono (?G ?f ?a) =>
    assert (Hfix : forall f' a', mono (G f' a'));
    [ intros f'; induction f' as [|f' IHf]; intros; lazy beta iota; [apply mono_oof|mono_go] | apply Hfix ] end.
Qed.
Lemma mono_skip_ws_to_eol fuel stb : mono (skip_ws_to_eol ops fuel stb).
Proof.
  pose proof (mono_in_skip_ws_to_eol fuel). unfold skip_ws_to_eol, adv_mark, mark. mono_go.
Qed.

Lemma fetch_flow_collection_start_counted F seq s u s' :
  fetch_flow_collection_start ops F seq s = Ok (u, s') ->
  exists mid t, sc_tokens s' = mid ++ [t] /\ real_flow_open t = true
                /\ snd t = (if seq then TFlowSequenceStart else TFlowMappingStart)
                /\ sc_flow_level s' = (sc_flow_level s + 1)%N.
Proof.
  intros H. unfold fetch_flow_collection_start in H.
  unfold bind at 1 in H. destruct (save_simple_key s) as [[u1 s1]| | |] eqn:E1; try discriminate.
  unfold bind at 1 in H. destruct (roll_one_col_indent s1) as [[u2 s2]| | |] eqn:E2; try discriminate.
  unfold bind at 1 in H. destruct (increase_flow_level s2) as [[u3 s3]| | |] eqn:E3; try discriminate.
  pose proof (neu_save_simple_key _ _ _ E1) as [L1 _]. pose proof (neu_roll_one_col_indent _ _ _ E2) as [L2 _].
  assert (L3 : sc_flow_level s3 = (sc_flow_level s2 + 1)%N).
  { unfold increase_flow_level, bind, get, put in E3. destruct (sc_flow_level s2 =? FLOW_LEVEL_MAX)%N; [discriminate|].
    inversion E3; subst. reflexivity. }
  (* from here on everything but skip_ws_to_eol is a pure state update *)
  unfold bind at 1 in H. unfold allow_simple_key, modify at 1 in H.
  unfold bind at 1 in H. unfold mark at 1, gets at 1 in H.
  unfold bind at 1 in H. unfold skip_non_blank, in_skip, adv_mark, bind, modify in H.
  destruct (skip_ws_to_eol ops F SkipYes
              (set_ifms ((if seq then ImPossible else ImMapping) ::
                 sc_ifms (set_lws false (set_mark (adv 1 (sc_mark (set_in (skip1 ops (sc_in (set_ska true s3))) (set_ska true s3))))
                            (set_in (skip1 ops (sc_in (set_ska true s3))) (set_ska true s3)))))
                 (set_lws false (set_mark (adv 1 (sc_mark (set_in (skip1 ops (sc_in (set_ska true s3))) (set_ska true s3))))
                            (set_in (skip1 ops (sc_in (set_ska true s3))) (set_ska true s3))))))
    as [[tw s4]| | |] eqn:E4; try discriminate.
  pose proof (mono_skip_ws_to_eol _ _ _ _ _ E4) as M4. destruct (Fr_skip_ws_to_eol ops _ _ _ _ _ E4) as (_ & L4 & _).
  cbn in M4, L4. unfold mark, gets, push_tok, modify in H. inversion H; subst; clear H.
  cbn [sc_tokens sc_flow_level set_tokens upd]. eexists; eexists. split; [reflexivity|].
  split; [|split; [destruct seq; reflexivity|]].
  - unfold real_flow_open, spn. cbn [fst snd]. destruct seq; [reflexivity|].
    unfold span_is_empty. cbn [sp_start sp_end]. apply negb_true_iff. apply N.eqb_neq. lia.
  - rewrite L4. cbn. rewrite L3, L2, L1. reflexivity.
Qed.

End Scan.

(* the string back-end, with the fuel of the driver *)
Corollary scan_str_flow_level_bounded text : tok_flow_max (fst (Drivers.scan_str text)) <= N.to_nat FLOW_LEVEL_MAX.
Proof. unfold Drivers.scan_str. apply scan_flow_level_bounded. Qed.
