(* C11 — "nesting is bounded" as a statement about TEXT: the scanner theorems (Proofs/DepthScan.v: flow level;
   Proofs/DepthNest.v: nesting of the whole token stream, a CONSTANT) composed with the parser theorem
   (Proofs/DepthTokRun.v). *)
From Coq Require Import List NArith Bool Lia PeanoNat.
Import ListNotations.
Require Import Parser SBase SFetch SBuf Pipe Drivers Grammar Loader C02run Depth DepthProofs DepthTok DepthTokRun DepthScan DepthNest DepthTree DepthAlias.
Require Consts DocRun.
Local Open Scope nat_scope.

(* whatever the scan of an input delivers, over any back-end: the events of a parser run over these tokens nest within the
   input-dependent bound (flow level + the collection starts it does not count) and within the constant.
   (Use it through proj1 / proj2: [apply] tries to unify one bound with the other and evaluates NEST_BOUND in unary.) *)
Lemma scanned_nesting_bounded {I : Type} (ops : InputOps I) (F fuel : nat) (i : I) keep se fuel' :
  let toks := fst (scan_all ops F fuel (init_sc i) []) in
  let evs := evs_of (fst (parse_all fuel' (init_parser toks keep) se [])) in
  max_nesting evs <= 2 * (N.to_nat Consts.FLOW_LEVEL_MAX + other_openers toks) /\ max_nesting evs <= NEST_BOUND.
Proof.
  cbv zeta. pose proof (scan_flow_level_bounded ops F fuel i). pose proof (scan_token_nesting_bounded ops F fuel i).
  set (toks := fst (scan_all ops F fuel (init_sc i) [])) in *.
  pose proof (nesting_bounded_by_flow_level_and_other_openers toks keep se fuel').
  pose proof (nesting_bounded_by_token_nesting toks keep se fuel'). unfold NEST_BOUND. lia.
Qed.

(* the pipeline is a scan followed by a parser run over its tokens; how much fuel the run gets does not matter here *)
Lemma run_str_scan_parse text :
  exists fuel, run_str text = parse_all fuel (init_parser (fst (scan_str text)) false) (snd (scan_str text)) [].
Proof. eexists. exact (DocRun.run_str_parse text). Qed.

(* For EVERY text: scan it with the scanner model (string back-end, the driver's fuel), feed the tokens to the pull
   parser model with whatever fuel: the events nest at most twice as deep as FLOW_LEVEL_MAX plus the number of
   collection-start tokens the flow level does not count (block collections, synthetic FlowMappingStart of implicit
   pairs) — whether the text is accepted or not. *)
Theorem text_nesting_bounded text keep se fuel :
  let toks := fst (scan_str text) in
  max_nesting (evs_of (fst (parse_all fuel (init_parser toks keep) se [])))
  <= 2 * (N.to_nat Consts.FLOW_LEVEL_MAX + other_openers toks).
Proof. exact (proj1 (scanned_nesting_bounded str_ops _ _ _ keep se fuel)). Qed.

(* the whole model pipeline *)
Theorem run_str_nesting_bounded text :
  max_nesting (evs_of (fst (run_str text)))
  <= 2 * (N.to_nat Consts.FLOW_LEVEL_MAX + other_openers (fst (scan_str text))).
Proof. destruct (run_str_scan_parse text) as [fuel ->]. apply text_nesting_bounded. Qed.

(* in particular: a text whose tokens contain no block collection start and no synthetic FlowMappingStart — flow
   collections written with their indicators only — nests at most 2 * FLOW_LEVEL_MAX deep *)
Corollary pure_flow_text_nesting_bounded text :
  other_openers (fst (scan_str text)) = 0 ->
  max_nesting (evs_of (fst (run_str text))) <= 2 * N.to_nat Consts.FLOW_LEVEL_MAX.
Proof. intros H. pose proof (run_str_nesting_bounded text) as B. rewrite H in B. lia. Qed.

(* the extracted oracle [c11_oracle] (run by vlib/p_c11.py on the IMPLEMENTATION's tokens and events) can never fail on
   the model: its three verdicts are theorems (h), (g), (i) *)
Lemma run_str_nesting_le_tokens text :
  max_nesting (evs_of (fst (run_str text))) <= 2 * tok_nest_max (fst (scan_str text)).
Proof. destruct (run_str_scan_parse text) as [fuel ->]. apply nesting_bounded_by_token_nesting. Qed.

(* THE headline: for EVERY text the events of the whole model pipeline nest at most NEST_BOUND deep *)
Theorem run_str_nesting_const text : max_nesting (evs_of (fst (run_str text))) <= NEST_BOUND.
Proof. destruct (run_str_scan_parse text) as [fuel ->]. exact (proj2 (scanned_nesting_bounded str_ops _ _ _ _ _ fuel)). Qed.

Theorem oracle_holds_on_model text :
  c11_oracle (fst (scan_str text)) (evs_of (fst (run_str text))) = (true, true, true, true, true).
Proof.
  unfold c11_oracle.
  rewrite (proj2 (Nat.leb_le _ _) (scan_str_flow_level_bounded text)).
  rewrite (proj2 (Nat.leb_le _ _) (run_str_nesting_le_tokens text)).
  rewrite (proj2 (Nat.leb_le _ _) (run_str_nesting_bounded text)).
  rewrite (proj2 (Nat.leb_le _ _) (scan_str_nest_bounded text)).
  rewrite (proj2 (Nat.leb_le _ _) (run_str_nesting_const text)). reflexivity.
Qed.

(* the recursion of the push loader (Parser::load) on the first document, in terms of the tokens *)
(* whenever load_document returns on the events of a run of the pull parser: the deepest chain of load_node
   activations is at most one more than twice the nesting of the token stream *)
Theorem push_loader_recursion_bounded_by_tokens toks keep se fuel fuel' rest m :
  pl_document fuel' (tl (evs_of (fst (parse_all fuel (init_parser toks keep) se [])))) = PlDone rest m ->
  m <= 1 + 2 * tok_nest_max toks.
Proof.
  intros H. apply push_loader_document_depth in H. pose proof (nesting_bounded_by_token_nesting toks keep se fuel). lia.
Qed.

Theorem push_loader_recursion_bounded_for_text text fuel' rest m :
  pl_document fuel' (tl (evs_of (fst (run_str text)))) = PlDone rest m ->
  m <= 1 + 2 * (N.to_nat Consts.FLOW_LEVEL_MAX + other_openers (fst (scan_str text))).
Proof. intros H. apply push_loader_document_depth in H. pose proof (run_str_nesting_bounded text). lia. Qed.

(* ... by a constant: Parser::load never has more than 1 + NEST_BOUND load_node activations on the call stack *)
Theorem push_loader_recursion_const text fuel' rest m :
  pl_document fuel' (tl (evs_of (fst (run_str text)))) = PlDone rest m -> m <= 1 + NEST_BOUND.
Proof. intros H. apply push_loader_document_depth in H. pose proof (run_str_nesting_const text). lia. Qed.

(* the loaded tree: drop / clone / eq / hash / emit of what an ACCEPTED alias-free text loads to *)
Lemma run_str_accepted_grammar text :
  snd (run_str text) = PDone -> grun GInit (evs_of (fst (run_str text))) = Some GEnd.
Proof.
  destruct (run_str_scan_parse text) as [fuel ->]. intros H.
  destruct (parser_run_wellformed (fst (scan_str text)) false (snd (scan_str text)) fuel) as [[g [Hg HD]] _].
  rewrite Hg, (HD H). reflexivity.
Qed.

(* For EVERY text the model pipeline accepts and whose events hold no alias: the loader model builds its documents,
   and every recursive traversal of a document entered at depth d reaches at most
   d + 2 * (FLOW_LEVEL_MAX + the collection starts the flow level does not count) *)
Theorem loaded_tree_walk_bounded_for_text text :
  snd (run_str text) = PDone -> alias_free_events (evs_of (fst (run_str text))) = true ->
  exists ld, load_events (evs_of (fst (run_str text))) l0 = LOk ld
             /\ Forall (fun y => forall d, ywalk d y <= d + 2 * (N.to_nat Consts.FLOW_LEVEL_MAX + other_openers (fst (scan_str text))))
                        (l_docs ld).
Proof.
  intros HD HA. destruct (loaded_tree_depth_bounded _ (run_str_accepted_grammar text HD) HA) as (ld & HL & HF).
  exists ld. split; [exact HL|]. eapply Forall_impl; [|exact HF]. cbn beta. intros y [_ Hy] d.
  pose proof (Hy d). pose proof (run_str_nesting_bounded text). lia.
Qed.

(* ... by a constant: every recursive traversal of a document of an accepted alias-free text, entered at depth d,
   reaches at most d + NEST_BOUND *)
Theorem loaded_tree_walk_const text :
  snd (run_str text) = PDone -> alias_free_events (evs_of (fst (run_str text))) = true ->
  exists ld, load_events (evs_of (fst (run_str text))) l0 = LOk ld
             /\ Forall (fun y => ydepth y <= NEST_BOUND /\ forall d, ywalk d y <= d + NEST_BOUND) (l_docs ld).
Proof.
  intros HD HA. destruct (loaded_tree_depth_bounded _ (run_str_accepted_grammar text HD) HA) as (ld & HL & HF).
  exists ld. split; [exact HL|]. eapply Forall_impl; [|exact HF]. cbn beta. intros y [Hd Hy].
  pose proof (run_str_nesting_const text). split; [lia|]. intros d. pose proof (Hy d). lia.
Qed.

(* ... and WITH aliases, for every accepted text: no document is deeper than the events have collection starts *)
Theorem loaded_tree_depth_le_collection_starts_for_text text :
  snd (run_str text) = PDone ->
  exists ld, load_events (evs_of (fst (run_str text))) l0 = LOk ld
             /\ Forall (fun y => ydepth y <= coll_starts (evs_of (fst (run_str text)))
                                 /\ forall d, ywalk d y <= d + coll_starts (evs_of (fst (run_str text)))) (l_docs ld).
Proof. intros HD. apply loaded_tree_depth_le_collection_starts. apply run_str_accepted_grammar. exact HD. Qed.

(* the same bound over the BUFFERED input back-end of any capacity *)
Definition scan_buf (cap : nat) (text : list N) : list token * scan_end :=
  let F := (2 * length text + 10)%nat in
  scan_all (buf_ops cap) F (4 * F + 20) (init_sc {| b_buf := []; b_rest := text |}) [].

Lemma run_buf_scan_parse cap text :
  exists fuel, run_buf cap text = parse_all fuel (init_parser (fst (scan_buf cap text)) false) (snd (scan_buf cap text)) [].
Proof. eexists. exact (DocRun.run_buf_parse cap text). Qed.

Theorem run_buf_nesting_bounded cap text :
  max_nesting (evs_of (fst (run_buf cap text)))
  <= 2 * (N.to_nat Consts.FLOW_LEVEL_MAX + other_openers (fst (scan_buf cap text))).
Proof. destruct (run_buf_scan_parse cap text) as [fuel ->]. exact (proj1 (scanned_nesting_bounded (buf_ops cap) _ _ _ _ _ fuel)). Qed.

Theorem run_buf_nesting_const cap text : max_nesting (evs_of (fst (run_buf cap text))) <= NEST_BOUND.
Proof. destruct (run_buf_scan_parse cap text) as [fuel ->]. exact (proj2 (scanned_nesting_bounded (buf_ops cap) _ _ _ _ _ fuel)). Qed.

(* the push loader over the buffered back-end *)
Theorem push_loader_recursion_const_buffered cap text fuel' rest m :
  pl_document fuel' (tl (evs_of (fst (run_buf cap text)))) = PlDone rest m -> m <= 1 + NEST_BOUND.
Proof. intros H. apply push_loader_document_depth in H. pose proof (run_buf_nesting_const cap text). lia. Qed.
