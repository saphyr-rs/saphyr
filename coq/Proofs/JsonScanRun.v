(* C13, scanner half (5): runs of fetch_more_tokens, and the induction over JSON texts (Spec/Json.v json_text): inside a
   flow collection the scanner model queues exactly json_tokens v. *)
From Coq Require Import List NArith ZArith Bool Arith Lia.
Import ListNotations.
Require Import Parser SBase SPrim SDir SScalar SFetch Pipe Resolver CoreSchema TokenGrammar Json FlowFold FlowScalarProofs PlainScalarProofs QuotedFoldProofs
               JsonScanBase JsonScanTok JsonScanStr JsonScanPlain JsonWords JsonInd.
Open Scope N_scope.
Open Scope mon_scope.

Lemma tokstart_cons c cs : is_ws c = false -> (c =? 35) = false -> tokstart (c :: cs).
Proof. intros A B. split; assumption. Qed.

(* fetch_more_tokens: runs of fetches while a simple key is pending at the head of the queue *)
Definition need_comp : @M strin bool :=
  s <- get ;;
  match sc_tokens s return @M strin bool with
  | [] => ret true
  | _ => stale_simple_keys ;;;
         s <- get ;;
         ret (existsb (fun k => sk_possible k && (sk_token_number k =? sc_tokens_parsed s)) (sc_sks s))
  end.
Arguments need_comp : simpl never.

Lemma fmt_S F fuel :
  fetch_more_tokens str_ops F (S fuel) =
  (need <- need_comp ;; if need then fetch_next_token str_ops F ;;; fetch_more_tokens str_ops F fuel else modify (set_ta true)).
Proof. reflexivity. Qed.

Definition needy (tp : N) (sks : list simple_key) : Prop :=
  existsb (fun k => sk_possible k && (sk_token_number k =? tp)) sks = true.
Lemma needy_cons tp k sks : needy tp sks -> needy tp (k :: sks).
Proof. unfold needy. cbn [existsb]. intros ->. apply orb_true_r. Qed.
Lemma needy_here tp m sks : needy tp (skey true tp m :: sks).
Proof. unfold needy. cbn [existsb skey sk_possible sk_token_number]. rewrite N.eqb_refl. reflexivity. Qed.

Lemma need_empty cs l mk adj ska sks fl tp ta lws ifms :
  need_comp (mkst cs l mk [] adj ska sks fl tp ta lws ifms) = Ok (true, mkst cs l mk [] adj ska sks fl tp ta lws ifms).
Proof. reflexivity. Qed.

Lemma busy_flow cs l mk q adj ska sks fl tp ta lws ifms : q <> [] -> 0 < fl -> needy tp sks ->
  need_comp (mkst cs l mk q adj ska sks fl tp ta lws ifms) = Ok (true, mkst cs l mk q adj ska sks fl tp ta lws ifms).
Proof.
  intros Hq Hfl Hn. unfold need_comp. destruct q as [|t q]; [congruence|].
  unfold mkst at 1. cbn. fold (mkst cs l mk (t :: q) adj ska sks fl tp ta lws ifms).
  rewrite stale_calm by (left; exact Hfl). unfold mkst at 1. cbn.
  unfold needy in Hn. rewrite Hn. reflexivity.
Qed.

Inductive fsteps (F : nat) : nat -> sc strin -> sc strin -> Prop :=
| fs_nil s : fsteps F 0 s s
| fs_cons k s s1 s2 :
    need_comp s = Ok (true, s) -> fetch_next_token str_ops F s = Ok (tt, s1) -> fsteps F k s1 s2 -> fsteps F (S k) s s2.

Lemma fsteps_app F a s s1 : fsteps F a s s1 -> forall b s2, fsteps F b s1 s2 -> fsteps F (a + b) s s2.
Proof. induction 1; intros; cbn; [assumption|]. econstructor; eauto. Qed.

Lemma fsteps_fmt F k s s' : fsteps F k s s' ->
  forall fuel, fetch_more_tokens str_ops F (k + fuel) s = fetch_more_tokens str_ops F fuel s'.
Proof.
  induction 1 as [|k s s1 s2 Hn Hf _ IH]; intros fuel; [reflexivity|].
  cbn [plus]. rewrite fmt_S. cbn [bind]. rewrite Hn. cbn [bind]. rewrite Hf. apply IH.
Qed.

(* runs in continuation-passing style: from s, some number of fetches leads to a state in P *)
Definition runs (F : nat) (s : sc strin) (P : nat -> sc strin -> Prop) : Prop := exists k s', fsteps F k s s' /\ P k s'.

Lemma runs_here F s (P : nat -> sc strin -> Prop) : P 0%nat s -> runs F s P.
Proof. intros H. exists 0%nat, s. split; [constructor|exact H]. Qed.
Lemma runs_step F s s1 (P : nat -> sc strin -> Prop) :
  need_comp s = Ok (true, s) -> fetch_next_token str_ops F s = Ok (tt, s1) -> runs F s1 (fun k => P (S k)) -> runs F s P.
Proof. intros Hn Hf (k & s' & R & HP). exists (S k), s'. split; [econstructor; eauto|exact HP]. Qed.
Lemma runs_bind F s (P Q : nat -> sc strin -> Prop) :
  runs F s P -> (forall k s', P k s' -> runs F s' (fun k2 => Q (k + k2)%nat)) -> runs F s Q.
Proof.
  intros (k & s' & R & HP) H. destruct (H k s' HP) as (k2 & s2 & R2 & HQ).
  exists (k + k2)%nat, s2. split; [eapply fsteps_app; eauto|exact HQ].
Qed.
Lemma runs_mono F s (P Q : nat -> sc strin -> Prop) : runs F s P -> (forall k s', P k s' -> Q k s') -> runs F s Q.
Proof. intros (k & s' & R & HP) H. exists k, s'. split; [exact R|apply H; exact HP]. Qed.

(* a value inside a collection *)
Definition after_node (ska0 : bool) (tp : N) (rest2 : list N) (q : list token) (exp : list tok) (tls : list simple_key) (fl : N) (ifms : list ims)
   (len0 : nat) (w1 : list N) (k : nat) (s' : sc strin) : Prop :=
  exists w1' l' mk' adj' ska' lws' p' tn' km' toks,
    s' = mkst (w1' ++ rest2) l' mk' (q ++ toks) adj' ska' (skey p' tn' km' :: tls) fl tp false lws' ifms
    /\ wsb w1' = true /\ (length w1' <= length w1)%nat /\ map snd toks = exp
    /\ (1 <= k)%nat /\ (k + length (w1' ++ rest2) <= len0)%nat /\ (length toks <= 3 * k)%nat
    /\ (ska0 = true -> p' = true /\ tn' = tp + N.of_nat (length q)).

Definition follow3 (rest2 : list N) : Prop := nth 0 rest2 0 = 44 \/ nth 0 rest2 0 = 93 \/ nth 0 rest2 0 = 125.

Lemma follow3_facts rest2 fl : follow3 rest2 -> 0 < fl ->
  tokstart rest2 /\ sfollow fl (nth 0 rest2 0) = true /\ pfollow fl (nth 0 rest2 0) = true /\ rest2 <> [].
Proof.
  intros H Hfl. apply N.ltb_lt in Hfl. unfold tokstart, sfollow, pfollow. rewrite Hfl.
  assert (Hne : rest2 <> []) by (intros ->; cbn in H; destruct H as [H|[H|H]]; discriminate H).
  destruct H as [-> | [-> | ->]]; repeat split; auto.
Qed.

Definition NodeScan (v : jvalue) (t : list N) : Prop :=
  forall F w0 w1 rest2 l mk q adj ska p tn km tls fl tp lws ifms,
    wsb w0 = true -> wsb w1 = true -> follow3 rest2 -> 0 < fl -> fl + N.of_nat (json_depth v) <= 255 -> q <> [] -> needy tp tls ->
    (2 * length (w0 ++ t ++ w1 ++ rest2) + 10 <= F)%nat ->
    runs F (mkst (w0 ++ t ++ w1 ++ rest2) l mk q adj ska (skey p tn km :: tls) fl tp false lws ifms)
         (after_node ska tp rest2 q (json_tokens v) tls fl ifms (length (w0 ++ t ++ w1 ++ rest2)) w1).

Ltac len := uc; repeat (rewrite ?app_length in *; cbn [length] in *); try lia.

Lemma app_ne_r {A} (q : list A) t r : q ++ t :: r <> [].
Proof. destruct q; discriminate. Qed.

(* the context of a value: inside a collection (the enclosing levels hold the pending root key), or at the top of the
   document (the value's own simple key is the root key) *)
Definition val_ctx (rest2 : list N) (q : list token) (ska : bool) (p : bool) (tn : N) (km : marker) (tls : list simple_key) (fl tp : N) : Prop :=
  (0 < fl /\ q <> [] /\ needy tp tls /\ follow3 rest2) \/ (fl = 0 /\ q = [] /\ ska = true /\ p = false /\ tls = [] /\ rest2 = []).

Lemma val_ctx_facts rest2 q ska p tn km tls fl tp l mk adj lws ifms cs :
  val_ctx rest2 q ska p tn km tls fl tp ->
  need_comp (mkst cs l mk q adj ska (skey p tn km :: tls) fl tp false lws ifms) = Ok (true, mkst cs l mk q adj ska (skey p tn km :: tls) fl tp false lws ifms)
  /\ calm fl (skey p tn km :: tls) /\ tokstart rest2 /\ sfollow fl (nth 0 rest2 0) = true /\ pfollow fl (nth 0 rest2 0) = true
  /\ (forall key2, (ska = true -> exists m, key2 = skey true (tp + N.of_nat (length q)) m) -> (0 < fl -> ska = false -> key2 = skey p tn km) ->
      (exists p2 tn2 km2, key2 = skey p2 tn2 km2) /\ needy tp (key2 :: tls)).
Proof.
  intros [(Hfl & Hq & Hnd & Hfol) | (-> & -> & -> & -> & -> & ->)].
  - destruct (follow3_facts rest2 fl Hfol Hfl) as (Hts & Hsf & Hpf & _).
    split; [apply busy_flow; [exact Hq|exact Hfl|apply needy_cons; exact Hnd]|]. split; [left; exact Hfl|].
    split; [exact Hts|]. split; [exact Hsf|]. split; [exact Hpf|].
    intros key2 A B. split; [|destruct ska; [destruct (A eq_refl) as (m & ->)|rewrite (B Hfl eq_refl)]; apply needy_cons; exact Hnd].
    destruct ska; [destruct (A eq_refl) as (m & ->); eauto|rewrite (B Hfl eq_refl); eauto].
  - split; [apply need_empty|]. split; [right; repeat constructor|]. split; [split; reflexivity|]. split; [reflexivity|]. split; [reflexivity|].
    intros key2 A _. destruct (A eq_refl) as (m & ->). split; [eauto|]. cbn [length N.of_nat]. rewrite N.add_0_r. apply needy_here.
Qed.

Definition ValueScan (v : jvalue) (t : list N) : Prop :=
  forall F w0 w1 rest2 l mk q adj ska p tn km tls fl tp lws ifms,
    wsb w0 = true -> wsb w1 = true -> val_ctx rest2 q ska p tn km tls fl tp -> fl + N.of_nat (json_depth v) <= 255 ->
    (2 * length (w0 ++ t ++ w1 ++ rest2) + 10 <= F)%nat ->
    runs F (mkst (w0 ++ t ++ w1 ++ rest2) l mk q adj ska (skey p tn km :: tls) fl tp false lws ifms)
         (after_node ska tp rest2 q (json_tokens v) tls fl ifms (length (w0 ++ t ++ w1 ++ rest2)) w1).

Lemma value_node v t : ValueScan v t -> NodeScan v t.
Proof.
  intros H F w0 w1 rest2 l mk q adj ska p tn km tls fl tp lws ifms Hw0 Hw1 Hfol Hfl Hdep Hq Hnd HF.
  apply H; try assumption. left. auto.
Qed.

(* numbers, literals, strings *)
Lemma val_plain v t : jword t = true -> json_tokens v = [TScalar Plain t] -> ValueScan v t.
Proof.
  intros Hj Htok F w0 w1 rest2 l mk q adj ska p tn km tls fl tp lws ifms Hw0 Hw1 Hctx _ HF.
  destruct t as [|c wd]; [discriminate|].
  destruct (val_ctx_facts rest2 q ska p tn km tls fl tp l mk adj lws ifms (w0 ++ (c :: wd) ++ w1 ++ rest2) Hctx) as (Hneed & Hcalm & Hts & _ & Hpf & _).
  destruct (fnt_word F c wd w0 w1 rest2 l mk q adj ska p tn km tls fl tp false lws ifms Hj Hw0 Hw1 Hts Hpf) as
    (l' & mk' & lws' & ska' & sp & p' & tn' & km' & E & Hkey); [len|len|exact Hcalm|].
  eapply runs_step; [exact Hneed|exact E|].
  apply runs_here. exists [], l', mk', adj, ska', lws', p', tn', km', [(sp, TScalar Plain (c :: wd))].
  cbn [app]. rewrite Htok. repeat split; auto; try (apply Hkey; assumption); len.
Qed.

Lemma val_string s t : str_text s t -> ValueScan (JStr s) (34 :: t ++ [34]).
Proof.
  intros Hst F w0 w1 rest2 l mk q adj ska p tn km tls fl tp lws ifms Hw0 Hw1 Hctx _ HF.
  destruct (str_items s t Hst) as (items & Hwf & Hsrc & Hval & Hlen).
  destruct (val_ctx_facts rest2 q ska p tn km tls fl tp l mk adj lws ifms (w0 ++ (34 :: t ++ [34]) ++ w1 ++ rest2) Hctx) as (Hneed & Hcalm & Hts & Hsf & _).
  assert (Echars : w0 ++ (34 :: t ++ [34]) ++ w1 ++ rest2 = w0 ++ 34 :: flat_map item_src items ++ 34 :: w1 ++ rest2).
  { rewrite Hsrc. cbn [app]. rewrite <- app_assoc. reflexivity. }
  rewrite Echars in *.
  destruct (fnt_string F items w0 w1 rest2 l mk q adj ska p tn km tls fl tp false lws ifms Hwf Hw0 Hw1 Hts Hsf) as
    (l' & mk' & lws' & ska' & sp & p' & tn' & km' & E & _ & Hkey); [rewrite <- Hsrc in *; len|rewrite <- Hsrc in *; len|len|exact Hcalm|].
  eapply runs_step; [exact Hneed|exact E|].
  apply runs_here. exists [], l', mk', (m_index mk'), ska', lws', p', tn', km', [(sp, TScalar DoubleQuoted (map item_val items))].
  cbn [app]. rewrite Hval. repeat split; auto; try (apply Hkey; assumption); len.
Qed.

(* the shape of JSON texts *)
Definition tokhead (X : list N) : Prop := exists c cs, X = c :: cs /\ is_ws c = false /\ (c =? 35) = false.

Lemma tokhead_app X R : tokhead X -> tokstart (X ++ R) /\ X ++ R <> [].
Proof. intros (c & cs & -> & A & B). split; [split; assumption|discriminate]. Qed.

Lemma jword_tokhead t : jword t = true -> tokhead t.
Proof.
  destruct t as [|c wd]; [discriminate|]. intros Hj. destruct (jword_head c wd [] Hj) as (Hc & _).
  exists c, wd. split; [reflexivity|]. split.
  - unfold is_ws, Resolver.ch. rewrite !(wchar_ne c _ Hc) by reflexivity. reflexivity.
  - apply wchar_ne; [exact Hc|reflexivity].
Qed.

Lemma json_text_head v t : json_text v t -> tokhead t.
Proof.
  destruct 1.
  - apply jword_tokhead. apply literal_jword.
  - apply jword_tokhead. destruct b; apply literal_jword.
  - apply jword_tokhead. apply json_number_jword. assumption.
  - exists 34; eexists; repeat split.
  - exists 91; eexists; repeat split.
  - exists 91; eexists; repeat split.
  - exists 123; eexists; repeat split.
  - exists 123; eexists; repeat split.
Qed.

Lemma tokhead_app_l X Y : tokhead X -> tokhead (X ++ Y).
Proof. intros (c & cs & -> & A & B). exists c, (cs ++ Y). repeat split; assumption. Qed.

(* the entries of '[ ]' and of '{ }' uniformly *)
(* an entry (an element; a member "name" : value): its text without the whitespace around it, and its tokens *)
Definition jentry : Type := (list N * list tok)%type.

Inductive entries_text : list jentry -> list N -> Prop :=
| en_one e w1 w2 : wsb w1 = true -> tokhead (fst e) -> wsb w2 = true -> entries_text [e] (w1 ++ fst e ++ w2)
| en_cons e w1 w2 r body : wsb w1 = true -> tokhead (fst e) -> wsb w2 = true -> entries_text r body ->
                           entries_text (e :: r) (w1 ++ fst e ++ w2 ++ 44 :: body).

Lemma entries_lead ents body : entries_text ents body ->
  exists wl X, body = wl ++ X /\ wsb wl = true /\ tokhead X /\ forall wl', wsb wl' = true -> entries_text ents (wl' ++ X).
Proof.
  destruct 1 as [e w1 w2 Hw1 He Hw2 | e w1 w2 r body Hw1 He Hw2 Hr].
  - exists w1, (fst e ++ w2). repeat split; [exact Hw1|apply tokhead_app_l; exact He|].
    intros wl' Hwl'. apply en_one; assumption.
  - exists w1, (fst e ++ w2 ++ 44 :: body). repeat split; [exact Hw1|apply tokhead_app_l; exact He|].
    intros wl' Hwl'. apply en_cons; assumption.
Qed.

(* an entry of a collection at most d levels deep is scanned to its tokens; simple keys are allowed in front of it *)
Definition EntryScan (seq : bool) (d : nat) (e : jentry) : Prop :=
  forall F w0 w1 rest2 l mk q adj p tn km tls fl tp lws ifr,
    wsb w0 = true -> wsb w1 = true -> follow3 rest2 -> 0 < fl -> fl + N.of_nat d <= 255 -> q <> [] -> needy tp tls ->
    (2 * length (w0 ++ fst e ++ w1 ++ rest2) + 10 <= F)%nat ->
    runs F (mkst (w0 ++ fst e ++ w1 ++ rest2) l mk q adj true (skey p tn km :: tls) fl tp false lws (open_ims seq :: ifr))
         (after_node false tp rest2 q (snd e) tls fl (open_ims seq :: ifr) (length (w0 ++ fst e ++ w1 ++ rest2)) w1).

Lemma fsep_cons (x : list tok) r : r <> [] -> fsep (x :: r) = x ++ TFlowEntry :: fsep r.
Proof. destruct r as [|y r']; [congruence|]. reflexivity. Qed.

Lemma entries_nonempty ents body : entries_text ents body -> ents <> [].
Proof. destruct 1; discriminate. Qed.

Lemma closer_follow3 seq R : nth 0 R 0 = close_char seq -> follow3 R.
Proof. intros H. destruct seq; [right; left|right; right]; exact H. Qed.

Lemma entries_scan seq d : forall ents, Forall (EntryScan seq d) ents -> forall body, entries_text ents body ->
  forall F R l mk q adj p tn km tls fl tp lws ifr,
    nth 0 R 0 = close_char seq -> 0 < fl -> fl + N.of_nat d <= 255 -> q <> [] -> needy tp tls ->
    (2 * length (body ++ R) + 10 <= F)%nat ->
    runs F (mkst (body ++ R) l mk q adj true (skey p tn km :: tls) fl tp false lws (open_ims seq :: ifr))
         (after_node false tp R q (fsep (map snd ents)) tls fl (open_ims seq :: ifr) (length (body ++ R)) body).
Proof.
  induction ents as [|e r IH]; intros Hall body Het F R l mk q adj p tn km tls fl tp lws ifr HR Hfl Hdep Hq Hnd HF.
  { inversion Het. }
  inversion Hall as [|? ? Hv Hr]; subst.
  inversion Het as [e0 w1 w2 Hw1 He Hw2 | e0 w1 w2 r0 body' Hw1 He Hw2 Hrt]; subst.
  - (* the last entry *)
    rewrite <- !app_assoc in *.
    eapply runs_mono; [apply (Hv F w1 w2 R l mk q adj p tn km tls fl tp lws ifr); try assumption; apply (closer_follow3 seq); exact HR|].
    intros k s' (w1' & l' & mk' & adj' & ska' & lws' & p' & tn' & km' & toks & -> & A & B & C & D & E & G & _).
    exists w1', l', mk', adj', ska', lws', p', tn', km', toks. cbn [map fsep flat_map]. rewrite app_nil_r.
    repeat split; auto; try (intros; discriminate). len.
  - (* an entry, a comma, more entries *)
    assert (Ech : (w1 ++ fst e ++ w2 ++ 44 :: body') ++ R = w1 ++ fst e ++ w2 ++ 44 :: body' ++ R) by (rewrite <- !app_assoc; reflexivity).
    rewrite Ech in *.
    eapply runs_bind; [apply (Hv F w1 w2 (44 :: body' ++ R) l mk q adj p tn km tls fl tp lws ifr); try assumption; left; reflexivity|].
    intros k s' (w2' & l' & mk' & adj' & ska' & lws' & p' & tn' & km' & toks & -> & A & B & C & D & E & G & _).
    destruct (entries_lead r body' Hrt) as (wl & X & -> & Hwl & HX & Hre).
    destruct (tokhead_app X R HX) as [HtsX _].
    rewrite <- app_assoc in *.
    destruct (fnt_comma F seq w2' wl (X ++ R) l' mk' (q ++ toks) adj' ska' p' tn' km' tls fl tp false lws' ifr A Hwl HtsX) as
      (l2 & mk2 & wl' & sp & E2 & Hwl' & Hlen2); [len|len|exact Hfl|].
    eapply runs_step; [apply busy_flow; [apply app_ne; exact Hq|exact Hfl|apply needy_cons; exact Hnd]|exact E2|].
    rewrite app_assoc.
    eapply runs_mono; [apply (IH Hr (wl' ++ X) (Hre wl' Hwl') F R l2 mk2 ((q ++ toks) ++ [(sp, TFlowEntry)]) adj' false tn' km' tls fl tp false ifr);
                         try assumption; [apply app_ne, app_ne; exact Hq|len]|].
    intros k2 s2 (w3 & l3 & mk3 & adj3 & ska3 & lws3 & p3 & tn3 & km3 & toks3 & -> & A3 & B3 & C3 & D3 & E3 & G3 & _).
    exists w3, l3, mk3, adj3, ska3, lws3, p3, tn3, km3, (toks ++ (sp, TFlowEntry) :: toks3).
    cbn [map]. rewrite (fsep_cons (snd e) (map snd r)) by (intros E0; apply map_eq_nil in E0; exact (entries_nonempty _ _ Hrt E0)).
    repeat split; auto; try (intros; discriminate).
    + rewrite <- !app_assoc. reflexivity.
    + len.
    + unfold token in *. rewrite map_app, map_cons, C, C3. reflexivity.
    + len.
    + len.
    + len.
Qed.

(* elements and members as entries *)
Definition AllScan (v : jvalue) : Prop := forall t, json_text v t -> ValueScan v t.

Lemma element_scan v t : NodeScan v t -> EntryScan true (json_depth v) (t, json_tokens v).
Proof.
  intros Hv F w0 w1 rest2 l mk q adj p tn km tls fl tp lws ifr Hw0 Hw1 Hfol Hfl Hdep Hq Hnd HF. cbn [fst snd] in *.
  eapply runs_mono; [apply (Hv F w0 w1 rest2 l mk q adj true p tn km tls fl tp lws (ImPossible :: ifr)); assumption|].
  intros k s' (w1' & l' & mk' & adj' & ska' & lws' & p' & tn' & km' & toks & -> & A & B & C & D & E & G & _).
  exists w1', l', mk', adj', ska', lws', p', tn', km', toks. repeat split; auto; intros; discriminate.
Qed.

Lemma entry_deeper seq d d' e : EntryScan seq d e -> (d <= d')%nat -> EntryScan seq d' e.
Proof. intros H Hd F w0 w1 rest2 l mk q adj p tn km tls fl tp lws ifr Hw0 Hw1 Hfol Hfl Hdep. apply H; try assumption. lia. Qed.

Definition mtok (kv : Resolver.str * jvalue) : list tok := TKey :: TScalar DoubleQuoted (fst kv) :: TValue :: json_tokens (snd kv).

(* one member: the name (a simple key is saved: simple keys are allowed after '{' and ','), the ':' directly behind it or behind
   whitespace (sc_adjacent), the value *)
Lemma member_scan k v kt w2 w3 t : NodeScan v t -> str_text k kt -> wsb w2 = true -> wsb w3 = true ->
  EntryScan false (json_depth v) (34 :: kt ++ 34 :: w2 ++ 58 :: w3 ++ t, mtok (k, v)).
Proof.
  intros Hv Hk Hw2 Hw3 F w1 w4 rest2 l mk q adj p tn km tls fl tp lws ifr Hw1 Hw4 Hfol Hfl Hdep Hq Hnd HF. cbn [fst snd open_ims] in *.
  assert (Ech : w1 ++ (34 :: kt ++ 34 :: w2 ++ 58 :: w3 ++ t) ++ w4 ++ rest2 = w1 ++ 34 :: kt ++ 34 :: w2 ++ 58 :: w3 ++ t ++ w4 ++ rest2).
  { repeat (rewrite <- app_assoc || (progress cbn [app])). reflexivity. }
  rewrite Ech in *. clear Ech.
  destruct (str_items k kt Hk) as (items & Hwf & Hsrc & Hval & Hlen). subst kt.
  assert (Hsf : sfollow fl 58 = true) by (unfold sfollow; replace (0 <? fl) with true by (symmetry; apply N.ltb_lt; exact Hfl); reflexivity).
  destruct (fnt_string F items w1 w2 (58 :: w3 ++ t ++ w4 ++ rest2) l mk q adj true p tn km tls fl tp false lws (ImMapping :: ifr) Hwf Hw1 Hw2) as
    (l1 & mk1 & lws1 & ska1 & sp & p1 & tn1 & km1 & E1 & _ & Hkey); [repeat split; reflexivity|exact Hsf|len|len|len|left; exact Hfl|].
  destruct (Hkey eq_refl) as [-> ->].
  eapply runs_step; [apply busy_flow; [exact Hq|exact Hfl|apply needy_cons; exact Hnd]|exact E1|].
  destruct (fnt_colon F (w3 ++ t ++ w4 ++ rest2) l1 mk1 q (sp, TScalar DoubleQuoted (map item_val items)) ska1 km1 tls fl tp false lws1 ifr) as
    (l2 & mk2 & sp1 & sp2 & E2); [len|exact Hfl|].
  eapply runs_step; [apply busy_flow; [apply app_ne; exact Hq|exact Hfl|apply needy_cons; exact Hnd]|exact E2|].
  eapply runs_mono; [apply (Hv F w3 w4 rest2 l2 mk2 ((q ++ [(sp1, TKey); (sp, TScalar DoubleQuoted (map item_val items))]) ++ [(sp2, TValue)])
                              (m_index mk1) false false (tp + N.of_nat (length q)) km1 tls fl tp false (ImMapping :: ifr));
                       try assumption; [apply app_ne, app_ne; exact Hq|len]|].
  intros k3 s3 (w4' & l3 & mk3 & adj3 & ska3 & lws3 & p3 & tn3 & km3 & toks3 & -> & A3 & B3 & C3 & D3 & E3 & G3 & _).
  exists w4', l3, mk3, adj3, ska3, lws3, p3, tn3, km3, ((sp1, TKey) :: (sp, TScalar DoubleQuoted (map item_val items)) :: (sp2, TValue) :: toks3).
  repeat split; auto; try (intros; discriminate).
  - rewrite <- !app_assoc. reflexivity.
  - unfold token in *. cbn [map snd mtok fst]. rewrite C3, Hval. reflexivity.
  - len.
  - len.
Qed.

Lemma elems_entries d : forall es body, elems_text es body -> Forall AllScan es -> Forall (fun v => (json_depth v <= d)%nat) es ->
  exists ents, entries_text ents body /\ Forall (EntryScan true d) ents /\ map snd ents = map json_tokens es.
Proof.
  induction es as [|v r IH]; intros body Het Hall Hdep; [inversion Het|].
  inversion Hall as [|? ? Hv Hr]; subst. inversion Hdep as [|? ? Hdv Hdr]; subst.
  pose proof (fun t Ht => entry_deeper true _ d _ (element_scan v t (value_node v t (Hv t Ht))) Hdv) as He.
  inversion Het as [v0 w1 t w2 Hw1 Ht Hw2 | v0 w1 t w2 r0 body' Hw1 Ht Hw2 Hrt]; subst.
  - exists [(t, json_tokens v)]. split; [apply (en_one (t, json_tokens v)); [exact Hw1|exact (json_text_head v t Ht)|exact Hw2]|].
    split; [constructor; [exact (He t Ht)|constructor]|reflexivity].
  - destruct (IH body' Hrt Hr Hdr) as (ents & Hents & Hsc & Htk).
    exists ((t, json_tokens v) :: ents). split; [apply (en_cons (t, json_tokens v)); [exact Hw1|exact (json_text_head v t Ht)|exact Hw2|exact Hents]|].
    split; [constructor; [exact (He t Ht)|exact Hsc]|cbn [map snd]; rewrite Htk; reflexivity].
Qed.

Lemma members_entries d : forall ms body, members_text ms body -> Forall (fun kv => AllScan (snd kv)) ms ->
  Forall (fun kv => (json_depth (snd kv) <= d)%nat) ms ->
  exists ents, entries_text ents body /\ Forall (EntryScan false d) ents /\ map snd ents = map mtok ms.
Proof.
  induction ms as [|[k v] r IH]; intros body Hmt Hall Hdep; [inversion Hmt|].
  inversion Hall as [|? ? Hv Hr]; subst. inversion Hdep as [|? ? Hdv Hdr]; subst. cbn [snd] in Hv, Hdv.
  pose proof (fun kt w2 w3 t Hk Hw2 Hw3 Ht => entry_deeper false _ d _ (member_scan k v kt w2 w3 t (value_node v t (Hv t Ht)) Hk Hw2 Hw3) Hdv) as He.
  assert (Hhead : forall kt X, tokhead (34 :: kt ++ X)) by (intros kt X; exists 34; eexists; repeat split).
  inversion Hmt as [k0 v0 w1 kt w2 w3 t w4 Hw1 Hk Hw2 Hw3 Ht Hw4 | k0 v0 w1 kt w2 w3 t w4 r0 body' Hw1 Hk Hw2 Hw3 Ht Hw4 Hrt]; subst.
  - exists [(34 :: kt ++ 34 :: w2 ++ 58 :: w3 ++ t, mtok (k, v))]. split.
    + replace (w1 ++ 34 :: kt ++ 34 :: w2 ++ 58 :: w3 ++ t ++ w4) with (w1 ++ (34 :: kt ++ 34 :: w2 ++ 58 :: w3 ++ t) ++ w4)
        by (repeat (rewrite <- app_assoc || (progress cbn [app])); reflexivity).
      apply (en_one (34 :: kt ++ 34 :: w2 ++ 58 :: w3 ++ t, mtok (k, v))); [exact Hw1|apply Hhead|exact Hw4].
    + split; [constructor; [exact (He kt w2 w3 t Hk Hw2 Hw3 Ht)|constructor]|reflexivity].
  - destruct (IH body' Hrt Hr Hdr) as (ents & Hents & Hsc & Htk).
    exists ((34 :: kt ++ 34 :: w2 ++ 58 :: w3 ++ t, mtok (k, v)) :: ents). split.
    + replace (w1 ++ 34 :: kt ++ 34 :: w2 ++ 58 :: w3 ++ t ++ w4 ++ 44 :: body')
        with (w1 ++ (34 :: kt ++ 34 :: w2 ++ 58 :: w3 ++ t) ++ w4 ++ 44 :: body')
        by (repeat (rewrite <- app_assoc || (progress cbn [app])); reflexivity).
      apply (en_cons (34 :: kt ++ 34 :: w2 ++ 58 :: w3 ++ t, mtok (k, v))); [exact Hw1|apply Hhead|exact Hw4|exact Hents].
    + split; [constructor; [exact (He kt w2 w3 t Hk Hw2 Hw3 Ht)|exact Hsc]|cbn [map snd]; rewrite Htk; reflexivity].
Qed.

(* collections *)
Lemma fsep_map {A} (g : A -> list tok) l :
  fsep (map g l) = match l with [] => [] | x :: r => g x ++ flat_map (fun y => TFlowEntry :: g y) r end.
Proof.
  destruct l as [|x r]; [reflexivity|]. cbn [map fsep]. f_equal.
  induction r as [|y r IH]; [reflexivity|]. cbn [map flat_map]. rewrite IH. reflexivity.
Qed.
Lemma json_tokens_arr es : json_tokens (JArr es) = TFlowSequenceStart :: fsep (map json_tokens es) ++ [TFlowSequenceEnd].
Proof. rewrite fsep_map. reflexivity. Qed.
Lemma json_tokens_obj ms : json_tokens (JObj ms) = TFlowMappingStart :: fsep (map mtok ms) ++ [TFlowMappingEnd].
Proof. rewrite fsep_map. destruct ms; reflexivity. Qed.

Lemma depth_arr_le l v : In v l -> (json_depth v <= fold_right (fun x m => Nat.max (json_depth x) m) 0 l)%nat.
Proof. induction l as [|x l IH]; [contradiction|]. cbn [fold_right In]. intros [->|H]; [lia|]. specialize (IH H). lia. Qed.
Lemma depth_obj_le (l : list (Resolver.str * jvalue)) kv : In kv l ->
  (json_depth (snd kv) <= fold_right (fun kv m => Nat.max (json_depth (snd kv)) m) 0 l)%nat.
Proof. induction l as [|x l IH]; [contradiction|]. cbn [fold_right In]. intros [->|H]; [lia|]. specialize (IH H). lia. Qed.

(* '[' or '{', the entries if there are any, ']' or '}' *)
Lemma coll_scan (seq : bool) v d ents body :
  json_depth v = S d -> json_tokens v = open_tok seq :: fsep (map snd ents) ++ [close_tok seq] ->
  match ents with [] => wsb body = true | _ => entries_text ents body end -> Forall (EntryScan seq d) ents ->
  ValueScan v (open_char seq :: body ++ [close_char seq]).
Proof.
  intros Ed Etok Hbody Hents F w0 w1 rest2 l mk q adj ska p tn km tls fl tp lws ifms Hw0 Hw1 Hctx Hdep HF.
  assert (Hfacts := fun cs => val_ctx_facts rest2 q ska p tn km tls fl tp l mk adj lws ifms cs Hctx).
  destruct (Hfacts []) as (_ & Hcalm & Hts & _ & _ & Hk2).
  rewrite Ed in Hdep. set (R := close_char seq :: w1 ++ rest2).
  assert (HR : nth 0 R 0 = close_char seq) by reflexivity.
  assert (Hlead : exists wl X, body = wl ++ X /\ wsb wl = true /\ tokstart (X ++ R)
            /\ forall wl', wsb wl' = true -> match ents with [] => X = [] | _ => entries_text ents (wl' ++ X) end).
  { destruct ents as [|e r].
    - exists body, []. rewrite app_nil_r. split; [reflexivity|]. split; [exact Hbody|]. split; [destruct seq; split; reflexivity|reflexivity].
    - destruct (entries_lead _ _ Hbody) as (wl & X & -> & Hwl & HX & Hre). exists wl, X.
      split; [reflexivity|]. split; [exact Hwl|]. split; [exact (proj1 (tokhead_app X R HX))|exact Hre]. }
  destruct Hlead as (wl & X & -> & Hwl & HtsX & Hre).
  assert (Ech : w0 ++ (open_char seq :: (wl ++ X) ++ [close_char seq]) ++ w1 ++ rest2 = w0 ++ open_char seq :: wl ++ X ++ R).
  { unfold R. repeat (rewrite <- app_assoc || (progress cbn [app])). reflexivity. }
  rewrite Ech in *. clear Ech.
  destruct (fnt_open F seq w0 wl (X ++ R) l mk q adj ska (skey p tn km) tls fl tp false lws ifms Hw0 Hwl HtsX) as
    (l1 & mk1 & wl' & sp1 & key2 & E1 & Hwl' & Hlen' & K1 & K2); [len|len|lia|exact Hcalm|].
  destruct (Hk2 key2 K1 K2) as ((p2 & tn2 & km2 & ->) & Hnd2).
  assert (Kinfo : ska = true -> p2 = true /\ tn2 = tp + N.of_nat (length q)) by (intros Hs; destruct (K1 Hs) as (mm & Em); inversion Em; auto).
  eapply runs_step; [exact (proj1 (Hfacts _))|exact E1|].
  (* the entries *)
  set (q1 := q ++ [(sp1, open_tok seq)]).
  assert (Hmid : runs F (mkst (wl' ++ X ++ R) l1 mk1 q1 adj true (dummy_key :: skey p2 tn2 km2 :: tls) (fl + 1) tp false false (open_ims seq :: ifms))
            (fun k s' => exists w3 l3 mk3 adj3 ska3 lws3 p3 tn3 km3 toks3,
               s' = mkst (w3 ++ R) l3 mk3 (q1 ++ toks3) adj3 ska3 (skey p3 tn3 km3 :: skey p2 tn2 km2 :: tls) (fl + 1) tp false lws3 (open_ims seq :: ifms)
               /\ wsb w3 = true /\ map snd toks3 = fsep (map snd ents)
               /\ (k + length (w3 ++ R) <= length (wl' ++ X ++ R))%nat /\ (length toks3 <= 3 * k)%nat)).
  { specialize (Hre wl' Hwl'). destruct ents as [|e r].
    - subst X. apply runs_here. exists wl', l1, mk1, adj, true, false, false, 0, mk0, []. rewrite app_nil_r. repeat split; auto.
    - rewrite app_assoc.
      eapply runs_mono; [apply (entries_scan seq d (e :: r) Hents (wl' ++ X) Hre F R l1 mk1 q1 adj false 0 mk0 (skey p2 tn2 km2 :: tls) (fl + 1) tp false ifms);
                           try assumption; [lia|lia|apply app_ne_r|len]|].
      intros k s' (w3 & l3 & mk3 & adj3 & ska3 & lws3 & p3 & tn3 & km3 & toks3 & -> & A3 & B3 & C3 & D3 & E3 & G3 & _).
      exists w3, l3, mk3, adj3, ska3, lws3, p3, tn3, km3, toks3. repeat split; auto. }
  eapply runs_bind; [exact Hmid|]. clear Hmid.
  intros k s' (w3 & l3 & mk3 & adj3 & ska3 & lws3 & p3 & tn3 & km3 & toks3 & -> & A3 & C3 & E3 & G3). subst R.
  destruct (fnt_close F seq w3 w1 rest2 l3 mk3 (q1 ++ toks3) adj3 ska3 p3 tn3 km3 (skey p2 tn2 km2) tls fl tp false lws3 ifms A3 Hw1 Hts) as
    (l4 & mk4 & w1' & sp4 & adj4 & E4 & Hw1' & Hlen1); [len|len|].
  eapply runs_step; [apply busy_flow; [apply app_ne, app_ne_r|lia|apply needy_cons; exact Hnd2]|exact E4|].
  apply runs_here. exists w1', l4, mk4, adj4, false, false, p2, tn2, km2, ((sp1, open_tok seq) :: toks3 ++ [(sp4, close_tok seq)]).
  repeat split; auto; try (apply Kinfo; assumption).
  + unfold q1. repeat (rewrite <- app_assoc || (progress cbn [app])). reflexivity.
  + unfold token in *. rewrite Etok. cbn [map snd]. rewrite map_app, C3. reflexivity.
  + len.
  + len.
  + len.
Qed.

Lemma coll_arr es : Forall AllScan es -> forall t, json_text (JArr es) t -> ValueScan (JArr es) t.
Proof.
  intros Hall t Ht. inversion Ht as [| | | |w Hw|x l0 body Hbody| |]; subst.
  - apply (coll_scan true (JArr []) 0 [] w); [reflexivity|reflexivity|exact Hw|constructor].
  - set (d := fold_right (fun x m => Nat.max (json_depth x) m) 0%nat (x :: l0)).
    destruct (elems_entries d _ _ Hbody Hall) as (ents & Hents & Hsc & Htk).
    { apply Forall_forall. intros v Hv. apply depth_arr_le, Hv. }
    apply (coll_scan true (JArr (x :: l0)) d ents body); [reflexivity|rewrite Htk; apply json_tokens_arr| |exact Hsc].
    destruct ents; [exact (False_ind _ (entries_nonempty _ _ Hents eq_refl))|exact Hents].
Qed.

Lemma coll_obj ms : Forall (fun kv => AllScan (snd kv)) ms -> forall t, json_text (JObj ms) t -> ValueScan (JObj ms) t.
Proof.
  intros Hall t Ht. inversion Ht as [| | | | | |w Hw|m l0 body Hbody]; subst.
  - apply (coll_scan false (JObj []) 0 [] w); [reflexivity|reflexivity|exact Hw|constructor].
  - set (d := fold_right (fun kv m => Nat.max (json_depth (snd kv)) m) 0%nat (m :: l0)).
    destruct (members_entries d _ _ Hbody Hall) as (ents & Hents & Hsc & Htk).
    { apply Forall_forall. intros kv Hkv. apply depth_obj_le, Hkv. }
    apply (coll_scan false (JObj (m :: l0)) d ents body); [reflexivity|rewrite Htk; apply json_tokens_obj| |exact Hsc].
    destruct ents; [exact (False_ind _ (entries_nonempty _ _ Hents eq_refl))|exact Hents].
Qed.

(* every JSON value, every serialisation of it *)
Theorem value_scan : forall v, AllScan v.
Proof.
  induction v using jvalue_ind2; intros t0 Ht.
  - inversion Ht; subst. apply val_plain; [apply literal_jword|reflexivity].
  - inversion Ht; subst. apply val_plain; [destruct b; apply literal_jword|reflexivity].
  - inversion Ht; subst. apply val_plain; [apply json_number_jword; assumption|reflexivity].
  - inversion Ht; subst. apply val_string. assumption.
  - apply coll_arr; assumption.
  - apply coll_obj; assumption.
Qed.

Theorem node_scan : forall v t, json_text v t -> NodeScan v t.
Proof. intros v t Ht. apply value_node, value_scan, Ht. Qed.
