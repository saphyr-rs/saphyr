(* C14 "the line-break style does not change the parse": ASSEMBLY at the pipeline level.

   For a CR-free text [x] and its image [img md x] (every LF replaced by CR LF, [md = CRLF], or by a lone CR,
   [md = CR]) the pipelines [run_str x] and [run_str (img md x)] (scanner + parser, each with the fuels computed from
   its own length) produce [EVR]-related event lists (the same events; spans with the same lines and columns, only
   the character index differs) and related ends ([PER]: both [PDone], or the same scanner / parser error site at
   markers with the same line and column) - unless a run ends in fuel / panic.

   Two versions:
   * [run_str_brk] from the scanner-level contract [brk_scan_all md] (ScanBrk.v).  That contract says nothing about
     the TOKENS of a scanner run that ends in [SFuel]/[SPanic], and the parser may well end properly on such a token
     list (a parse error before the point where the scanner broke off).  So the exception here is: one of the two
     SCANNER runs, or one of the two pipelines, ends in fuel / panic.
   * [run_str_brk_strong] from the contract of ONE scanner step, [brk_next_token md] (from which [brk_scan_all md]
     follows: [brk_scan_all_of_next_token]): a scanner run that broke off has delivered tokens related to a PREFIX
     of the other run's tokens ([scan_all_brk_tri]), and the parser reads its tokens front to back, so the
     exception is only: one of the two PIPELINES ends in fuel / panic. *)
From Coq Require Import List NArith ZArith Bool Arith Lia.
Import ListNotations.
Require Import DocRun Parser SBase SPrim SDir SScalar SFetch Pipe BreakProofs ScanBrk ScanBrkParse.
Require ScanRelTop.
Local Open Scope nat_scope.

(* the scanner run inside [run_str y] *)
Definition str_scan (y : list N) : list token * scan_end :=
  scan_all sops (2 * length y + 10) (4 * (2 * length y + 10) + 20) (init_sc {| si_chars := y; si_look := 0 |}) [].
Definition str_fuel (y : list N) : nat := 4 * (4 * (2 * length y + 10) + 20) + 40.
Lemma run_str_scan y : run_str y = parse_all (str_fuel y) (start_parser (fst (str_scan y)) false) (snd (str_scan y)) [].
Proof. exact (run_str_parse y). Qed.

Lemma PR_init T1 T2 : Forall2 TR T1 T2 -> PR (start_parser T1 false) (start_parser T2 false).
Proof.
  intros H. constructor; cbn [start_parser p_toks p_token p_states p_state p_anchors p_anchor_id p_tags p_keep_tags];
    try reflexivity; try constructor. exact H.
Qed.
Lemma ext_start a b : ext b (start_parser a false) = start_parser (a ++ b) false.
Proof. reflexivity. Qed.

Lemma proper_or_bad e : proper_end e \/ se_bad e.
Proof. destruct e; cbn; auto. Qed.
Lemma proper_not_bad e : proper_end e -> se_bad e -> False.
Proof. destruct e; cbn; auto. Qed.

Lemma ER_bad_l e1 e2 : se_bad e1 -> ER e1 e2.
Proof. destruct e1, e2; cbn; auto; contradiction. Qed.
Lemma ER_bad_r e1 e2 : se_bad e2 -> ER e1 e2.
Proof. destruct e1, e2; cbn; auto; contradiction. Qed.

(* 1. From the contract of the whole scan *)
Section Top.
Variable md : mode.
Hypothesis H_all : brk_scan_all md.

Theorem run_str_brk_sec x : nocr x ->
  se_bad (snd (str_scan x)) \/ se_bad (snd (str_scan (img md x))) \/ run_rel (run_str x) (run_str (img md x)).
Proof.
  intros Hx. rewrite !run_str_scan.
  assert (HT : ER (snd (str_scan x)) (snd (str_scan (img md x)))
               /\ (proper_end (snd (str_scan x)) -> proper_end (snd (str_scan (img md x))) ->
                   Forall2 TR (fst (str_scan x)) (fst (str_scan (img md x)))))
    by (unfold str_scan; apply (brk_target_of_scan_all md H_all x Hx)).
  destruct HT as [HE HF].
  destruct (proper_or_bad (snd (str_scan x))) as [P1|B1]; [|left; exact B1].
  destruct (proper_or_bad (snd (str_scan (img md x)))) as [P2|B2]; [|right; left; exact B2].
  right. right. apply parse_all_brk; [apply PR_init; exact (HF P1 P2)|exact HE|constructor].
Qed.
End Top.

(* 2. From the contract of one scanner step: a run that broke off has delivered a related prefix *)
Definition scan_tri (r1 r2 : list token * scan_end) : Prop :=
  (proper_end (snd r1) /\ proper_end (snd r2) /\ ER (snd r1) (snd r2) /\ Forall2 TR (fst r1) (fst r2))
  \/ (se_bad (snd r1) /\ exists a b, fst r2 = a ++ b /\ Forall2 TR (fst r1) a)
  \/ (se_bad (snd r2) /\ exists a b, fst r1 = a ++ b /\ Forall2 TR a (fst r2)).

(* a run that broke off, having delivered [acc1], against a run that delivers at least the related [acc2] *)
Lemma tri_bad_l acc1 acc2 e1 r2 : se_bad e1 -> Forall2 TR acc1 acc2 -> (exists x, fst r2 = rev acc2 ++ x) ->
  scan_tri (rev acc1, e1) r2.
Proof. intros B HA [x Hx]. right. left. split; [exact B|]. exists (rev acc2), x. split; [exact Hx|apply F2_rev; exact HA]. Qed.
Lemma tri_bad_r acc1 acc2 r1 e2 : se_bad e2 -> Forall2 TR acc1 acc2 -> (exists x, fst r1 = rev acc1 ++ x) ->
  scan_tri r1 (rev acc2, e2).
Proof. intros B HA [x Hx]. right. right. split; [exact B|]. exists (rev acc1), x. split; [exact Hx|apply F2_rev; exact HA]. Qed.

Section Strong.
Variable md : mode.
Hypothesis H_nt : brk_next_token md.

Theorem scan_all_brk_tri F1 F2 : forall n1 n2 s1 s2 acc1 acc2, BR md s1 s2 -> Forall2 TR acc1 acc2 ->
  scan_tri (scan_all sops F1 n1 s1 acc1) (scan_all sops F2 n2 s2 acc2).
Proof.
  induction n1 as [|n1 IH]; intros n2 s1 s2 acc1 acc2 HB HA.
  { apply (tri_bad_l acc1 acc2); [exact I|exact HA|apply ScanRelTop.scan_all_extends]. }
  destruct n2 as [|n2].
  { apply (tri_bad_r acc1 acc2); [exact I|exact HA|apply ScanRelTop.scan_all_extends]. }
  pose proof (ScanRelTop.scan_all_extends sops F1 (S n1) s1 acc1) as X1.
  pose proof (ScanRelTop.scan_all_extends sops F2 (S n2) s2 acc2) as X2.
  pose proof (bwp_elim _ _ _ _ _ (H_nt F1 F2 s1 s2 HB)) as H.
  cbn [scan_all] in *. revert X1 X2 H.
  destruct (next_token sops F1 s1) as [[[t1|] u1]|e1 k1|m1|];
    destruct (next_token sops F2 s2) as [[[t2|] u2]|e2 k2|m2|]; intros X1 X2 H;
    try contradiction;
    try (apply (tri_bad_l acc1 acc2); [exact I|exact HA|exact X2]);
    try (apply (tri_bad_r acc1 acc2); [exact I|exact HA|exact X1]).
  - destruct H as [HT HU]. apply IH; [exact HU|constructor; [exact HT|exact HA]].
  - destruct H as [[] _].
  - destruct H as [[] _].
  - left. cbn [fst snd proper_end ER]. repeat split. apply F2_rev. exact HA.
  - left. cbn [fst snd proper_end ER]. split; [exact I|split; [exact I|split; [exact H|apply F2_rev; exact HA]]].
Qed.

(* the contract of the whole scan follows *)
Theorem brk_scan_all_of_next_token : brk_scan_all md.
Proof.
  intros F1 F2 n1 n2 s1 s2 acc1 acc2 HB HA.
  destruct (scan_all_brk_tri F1 F2 n1 n2 s1 s2 acc1 acc2 HB HA) as [(P1 & P2 & HE & HF)|[[B _]|[B _]]].
  - split; [exact HE|intros _ _; exact HF].
  - split; [apply ER_bad_l; exact B|intros P; destruct (proper_not_bad _ P B)].
  - split; [apply ER_bad_r; exact B|intros _ P; destruct (proper_not_bad _ P B)].
Qed.

Theorem run_str_brk_strong_sec x : nocr x -> run_rel (run_str x) (run_str (img md x)).
Proof.
  intros Hx. rewrite !run_str_scan.
  assert (HT : scan_tri (str_scan x) (str_scan (img md x)))
    by (unfold str_scan; apply scan_all_brk_tri; [apply BR_init; exact Hx|constructor]).
  destruct HT as [(P1 & P2 & HE & HF)|[[B (a & b & E & HF)]|[B (a & b & E & HF)]]].
  - apply parse_all_brk; [apply PR_init; exact HF|exact HE|constructor].
  - rewrite E, <- ext_start. apply parse_all_brk_ext_r; [apply PR_init; exact HF|exact B|constructor].
  - rewrite E, <- ext_start. apply parse_all_brk_ext_l; [apply PR_init; exact HF|exact B|constructor].
Qed.
End Strong.

(* 3. The exported theorems *)
Theorem run_str_brk : forall md, brk_scan_all md -> forall x, nocr x ->
  se_bad (snd (str_scan x)) \/ se_bad (snd (str_scan (img md x)))
  \/ pend_bad (snd (run_str x)) \/ pend_bad (snd (run_str (img md x)))
  \/ (Forall2 EVR (fst (run_str x)) (fst (run_str (img md x))) /\ PER (snd (run_str x)) (snd (run_str (img md x)))).
Proof.
  intros md H x Hx. destruct (run_str_brk_sec md H x Hx) as [B|[B|[B|[B|R]]]]; auto 10.
Qed.

(* both scanner runs and both pipelines end properly: the same events, the same end *)
Corollary run_str_brk_proper : forall md, brk_scan_all md -> forall x, nocr x ->
  proper_end (snd (str_scan x)) -> proper_end (snd (str_scan (img md x))) ->
  pend_proper (snd (run_str x)) -> pend_proper (snd (run_str (img md x))) ->
  Forall2 EVR (fst (run_str x)) (fst (run_str (img md x))) /\ PER (snd (run_str x)) (snd (run_str (img md x))).
Proof.
  intros md H x Hx S1 S2 P1 P2. destruct (run_str_brk_sec md H x Hx) as [B|[B|R]].
  - destruct (proper_not_bad _ S1 B).
  - destruct (proper_not_bad _ S2 B).
  - apply run_rel_proper; assumption.
Qed.

Theorem run_str_brk_strong : forall md, brk_next_token md -> forall x, nocr x ->
  pend_bad (snd (run_str x)) \/ pend_bad (snd (run_str (img md x)))
  \/ (Forall2 EVR (fst (run_str x)) (fst (run_str (img md x))) /\ PER (snd (run_str x)) (snd (run_str (img md x)))).
Proof. intros md H x Hx. exact (run_str_brk_strong_sec md H x Hx). Qed.

Corollary run_str_brk_strong_proper : forall md, brk_next_token md -> forall x, nocr x ->
  pend_proper (snd (run_str x)) -> pend_proper (snd (run_str (img md x))) ->
  Forall2 EVR (fst (run_str x)) (fst (run_str (img md x))) /\ PER (snd (run_str x)) (snd (run_str (img md x))).
Proof. intros md H x Hx P1 P2. apply run_rel_proper; [exact (run_str_brk_strong_sec md H x Hx)|exact P1|exact P2]. Qed.

(* the two modes: LF -> CR LF ([crlf]) and LF -> CR ([cr]) of BreakProofs.v *)
Theorem run_str_crlf : brk_scan_all CRLF -> forall x, nocr x ->
  se_bad (snd (str_scan x)) \/ se_bad (snd (str_scan (crlf x)))
  \/ pend_bad (snd (run_str x)) \/ pend_bad (snd (run_str (crlf x)))
  \/ (Forall2 EVR (fst (run_str x)) (fst (run_str (crlf x))) /\ PER (snd (run_str x)) (snd (run_str (crlf x)))).
Proof. intros H x Hx. rewrite <- (img_crlf x). exact (run_str_brk CRLF H x Hx). Qed.
Theorem run_str_cr : brk_scan_all CR -> forall x, nocr x ->
  se_bad (snd (str_scan x)) \/ se_bad (snd (str_scan (cr x)))
  \/ pend_bad (snd (run_str x)) \/ pend_bad (snd (run_str (cr x)))
  \/ (Forall2 EVR (fst (run_str x)) (fst (run_str (cr x))) /\ PER (snd (run_str x)) (snd (run_str (cr x)))).
Proof. intros H x Hx. rewrite <- (img_cr x). exact (run_str_brk CR H x Hx). Qed.

Theorem run_str_crlf_strong : brk_next_token CRLF -> forall x, nocr x ->
  pend_bad (snd (run_str x)) \/ pend_bad (snd (run_str (crlf x)))
  \/ (Forall2 EVR (fst (run_str x)) (fst (run_str (crlf x))) /\ PER (snd (run_str x)) (snd (run_str (crlf x)))).
Proof. intros H x Hx. rewrite <- (img_crlf x). exact (run_str_brk_strong CRLF H x Hx). Qed.
Theorem run_str_cr_strong : brk_next_token CR -> forall x, nocr x ->
  pend_bad (snd (run_str x)) \/ pend_bad (snd (run_str (cr x)))
  \/ (Forall2 EVR (fst (run_str x)) (fst (run_str (cr x))) /\ PER (snd (run_str x)) (snd (run_str (cr x)))).
Proof. intros H x Hx. rewrite <- (img_cr x). exact (run_str_brk_strong CR H x Hx). Qed.

Print Assumptions run_str_brk.
Print Assumptions run_str_brk_proper.
Print Assumptions scan_all_brk_tri.
Print Assumptions brk_scan_all_of_next_token.
Print Assumptions run_str_brk_strong.
Print Assumptions run_str_brk_strong_proper.
Print Assumptions run_str_crlf.
Print Assumptions run_str_cr.
Print Assumptions run_str_crlf_strong.
Print Assumptions run_str_cr_strong.
