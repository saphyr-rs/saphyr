(* Runs of the parser's state machine as a relation ([steps], [accepts]), and the pipelines [run_str] / [run_buf] as the scanner
   followed by the parser ([run_str_parse], [run_buf_parse]). *)
From Coq Require Import List NArith Bool Lia.
Import ListNotations.
Require Import Parser.
Require SBase SFetch SBuf Pipe.
Local Open Scope N_scope.

(* runs of the state machine *)
Inductive steps : parser -> list (event * span) -> parser -> Prop :=
| steps_nil p : steps p [] p
| steps_cons p e p1 l p2 : state_machine p = Ok (e, p1) -> steps p1 l p2 -> steps p (e :: l) p2.

Lemma steps_app p a p1 b p2 : steps p a p1 -> steps p1 b p2 -> steps p (a ++ b) p2.
Proof. induction 1; cbn; [auto|]. intros H2. econstructor; eauto. Qed.
Lemma steps_one p e p1 : state_machine p = Ok (e, p1) -> steps p [e] p1.
Proof. intros H. econstructor; [exact H|constructor]. Qed.

Definition start_parser (toks : list token) (keep : bool) : parser :=
  {| p_toks := toks; p_token := None; p_states := []; p_state := SStreamStart;
     p_anchors := []; p_anchor_id := 1; p_tags := []; p_keep_tags := keep |}.

Definition accepts (toks : list token) (keep : bool) (evs : list (event * span)) : Prop :=
  exists p', steps (start_parser toks keep) evs p' /\ p_state p' = SEnd.

Definition evs_of (l : list (event * span)) : list event := map fst l.

(* [Pipe.run_str]: the scanner run, then the parser on what it delivered *)
Lemma run_str_parse (y : list N) :
  let F := (2 * length y + 10)%nat in
  let r := SFetch.scan_all SBase.str_ops F (4 * F + 20) (SBase.init_sc {| SBase.si_chars := y; SBase.si_look := 0 |}) [] in
  Pipe.run_str y = Pipe.parse_all (4 * (4 * F + 20) + 40) (start_parser (fst r) false) (snd r) [].
Proof. unfold Pipe.run_str. cbv zeta. destruct (SFetch.scan_all _ _ _ _ _) as [toks se]. reflexivity. Qed.

Lemma run_buf_parse (cap : nat) (y : list N) :
  let F := (2 * length y + 10)%nat in
  let r := SFetch.scan_all (SBuf.buf_ops cap) F (4 * F + 20) (SBase.init_sc {| SBuf.b_buf := []; SBuf.b_rest := y |}) [] in
  SBuf.run_buf cap y = Pipe.parse_all (4 * (4 * F + 20) + 40) (start_parser (fst r) false) (snd r) [].
Proof. unfold SBuf.run_buf. cbv zeta. destruct (SFetch.scan_all _ _ _ _ _) as [toks se]. reflexivity. Qed.
