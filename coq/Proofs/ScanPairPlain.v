(* The scanner over the buffered input against the scanner over the string input, in the calculus of ScanPair.v
   ([rwp] is [rwpG strict N0]): the PLAIN SCALAR family

     scan_plain_scalar_ok : rel_scan_plain_scalar cap strict N0              (after the section: [forall cap, 8 <= cap -> ...])

   The word loop of scan_plain_scalar (a local [fix go] of the model) is [plain_go] of ScanLoops.v, generic in [ops]:
   one definition serves both back-ends.

   Everything is in lockstep but [plain_chunk]: it refreshes the lookahead ([look bufmaxlen]) when its chunk counter
   reaches [bufmaxlen - 1], and [bufmaxlen] is 128 on the string side and [cap] on the buffered side.  The chunk lemma
   [rel_plain_chunk] is therefore stated for two independent fuels and two independent chunk counters; the only
   invariant is the one of the buffered side ([cap - j2 <= bl2 s2]: at counter [j2] the buffer still holds at least
   [cap - j2] characters - the panic-freedom invariant of ScanSafePlain.v); a refresh is a step of one side alone
   (the string side's only bumps its lookahead counter, the buffered side's refills the buffer) and does not move the
   relation [SR].  The string side's counter [j1] is unconstrained: its reads never depend on the lookahead.
   In the strict calculus the buffered side's fuel f2 must be enough: [2 * |remaining text| + (1 if a refresh is
   pending) < f2], which the call site gets from the calculus' bound ([rwp_bound]) and [2 * N0 + 6 <= F]. *)
From Coq Require Import List NArith ZArith Bool Arith Lia.
Import ListNotations.
Require Import Parser SBase SPrim SDir SScalar SFetch SBuf InputRefine ScanLoops ScanPair ScanPairPrim.
Local Open Scope nat_scope.
#[local] Arguments Nat.ltb : simpl never.
#[local] Arguments Nat.leb : simpl never.
#[local] Arguments Nat.eqb : simpl never.
#[local] Arguments Nat.sub : simpl never.
Local Open Scope mon_scope.

Section RelPlain.
Variable cap : nat.
Hypothesis cap_ge : 8 <= cap.
Variable strict : bool.
Variable N0 : nat.
Local Notation rwp := (rwpG strict N0).
Notation sops := str_ops.
Notation bops := (buf_ops cap).

(* ---------------- the refresh [look bufmaxlen]: 128 characters asked on the string side, cap on the buffered side;
   each side steps alone ---------------- *)
Lemma rwp_look_bufmax (Q : unit -> st1 -> unit -> st2 -> Prop) s1 s2 :
  SR s1 s2 ->
  (forall t1 t2, SR t1 t2 -> rem1 t1 = rem1 s1 -> erase t1 = erase s1 -> cap <= bl2 t2 -> bl2 s2 <= bl2 t2 -> Q tt t1 tt t2) ->
  rwp (look sops (bufmaxlen sops)) (look bops (bufmaxlen bops)) Q s1 s2.
Proof using cap_ge.
  intros HS HQ. change (bufmaxlen bops) with cap.
  destruct (look_buf_ok cap cap_ge cap s1 s2 HS (le_n _)) as (t2 & EL & HT & BT & BT').
  intros B. unfold rwpG. rewrite EL, look_str_ok. split; [exact B|].
  apply HQ; [apply SR_bump; exact HT|apply rem1_bump|apply erase_bump|exact BT|exact BT'].
Qed.

(* ---------------- plain_chunk: NOT in lockstep ----------------
   two fuels, two chunk counters; invariant of the buffered side only: [cap - j2 <= bl2 s2].
   On exit the same characters have been collected, the states are related and 2 characters are still buffered. *)
Definition chunk_post : list chr -> st1 -> list chr -> st2 -> Prop :=
  fun a1 t1 a2 t2 => a1 = a2 /\ SR t1 t2 /\ 2 <= bl2 t2.

(* The buffered side's fuel: every iteration consumes a character that is really there, but for the refresh, which
   happens at most once every [cap - 1 >= 7] characters and is followed by a consuming (or final) iteration: with
   [n] characters left, [2 * n + (1 if a refresh is pending)] iterations are enough. *)
Lemma rel_plain_chunk : forall f1 f2 j1 j2 acc s1 s2, SR s1 s2 -> cap - j2 <= bl2 s2 ->
  (strict = true -> 2 * length (rem1 s1) + (if Nat.leb (cap - 1) j2 then 1 else 0) < f2) ->
  rwp (plain_chunk sops f1 j1 acc) (plain_chunk bops f2 j2 acc) chunk_post s1 s2.
Proof using cap_ge.
  induction f1 as [|f1 IH1]; [intros; apply rwp_oof_l|].
  induction f2 as [|f2 IH2]; [intros j1 j2 acc s1 s2 HS HB HF; apply rwp_oof_r; intros E; specialize (HF E); lia|].
  intros j1 j2 acc s1 s2 HS HB HF.
  destruct (Nat.leb (cap - 1) j2) eqn:E2.
  { (* the buffered side refreshes, alone: [look cap] refills the buffer, the relation does not move *)
    rewrite (plain_chunk_S bops). change (bufmaxlen bops) with cap. rewrite E2.
    destruct (look_buf_ok cap cap_ge cap s1 s2 HS (le_n _)) as (t2 & EL & HT & BT & _).
    eapply rwp_step_r; [exact EL|]. apply IH2; [exact HT|lia|]. intros E. specialize (HF E).
    replace (Nat.leb (cap - 1) 0) with false by (symmetry; apply Nat.leb_gt; lia). lia. }
  destruct (Nat.leb (bufmaxlen sops - 1) j1) eqn:E1.
  { (* the string side refreshes, alone: only its lookahead counter moves *)
    rewrite (plain_chunk_S sops). rewrite E1.
    eapply rwp_step_l; [apply look_str_ok|rewrite rem1_bump; apply le_n|].
    apply IH1; [apply SR_bump; exact HS|exact HB|rewrite rem1_bump, E2; exact HF]. }
  (* both sides examine and consume the same character *)
  rewrite (plain_chunk_S sops), (plain_chunk_S bops). rewrite E1. change (bufmaxlen bops) with cap. rewrite E2.
  apply Nat.leb_gt in E2.
  apply rwp_bind. apply (rwp_next_is cap cap_ge); [exact HS|lia|]. cbv beta.
  apply rwp_bind. apply rwp_get. cbv beta. sr_sync HS.
  destruct (is_blank_or_breakz (rn1 s1 0)) eqn:Eb.
  - apply rwp_bind. apply rwp_ret. cbn [orb]. apply rwp_ret. split; [reflexivity|]. split; [exact HS|lia].
  - apply rwp_bind. apply (rwp_next_can_be_plain_scalar cap cap_ge); [exact HS|lia|]. cbn [orb].
    destruct (plain_ok_val (0 <? sc_flow_level s1)%N s1); cbn [negb].
    + apply rwp_bind. apply (rwp_peek cap cap_ge); [exact HS|lia|]. cbv beta.
      apply rwp_bind. apply (rwp_skip_non_blank cap cap_ge); [exact HS|lia|]. intros t1 t2 HT RT BT.
      apply IH1; [exact HT|lia|]. intros E. specialize (HF E).
      (* the character consumed is not NUL: it is really there *)
      assert (Hpos : 0 < length (rem1 s1)).
      { unfold rn1 in Eb. destruct (rem1 s1); [discriminate Eb|cbn; lia]. }
      assert (Hlen : S (length (rem1 t1)) = length (rem1 s1)) by (rewrite RT; destruct (rem1 s1); cbn in *; lia).
      destruct (Nat.leb (cap - 1) (S j2)); lia.
    + apply rwp_ret. split; [reflexivity|]. split; [exact HS|lia].
Qed.

(* plain_blanks: blanks and breaks between the words (lockstep) *)
Lemma rel_plain_blanks F : forall fuel indent start lb tb ws s1 s2, SR s1 s2 -> 2 <= bl2 s2 ->
  rwp (plain_blanks sops F fuel indent start lb tb ws) (plain_blanks bops F fuel indent start lb tb ws) (rpost 0) s1 s2.
Proof using cap_ge.
  induction fuel as [|fuel IH]; intros indent start lb tb ws s1 s2 HS HB; cbn [plain_blanks]; [apply rwp_oof_l|].
  apply rwp_bind. apply (rwp_peek cap cap_ge); [exact HS|lia|]. cbv beta.
  assert (Hblank : forall ws',
            rwp (skip_blank sops ;;; look sops 2 ;;; plain_blanks sops F fuel indent start lb tb ws')
                (skip_blank bops ;;; look bops 2 ;;; plain_blanks bops F fuel indent start lb tb ws') (rpost 0) s1 s2).
  { intros ws'. apply rwp_bind. apply (rwp_skip_blank cap cap_ge); [exact HS|lia|]. intros u1 u2 HU _ _.
    apply rwp_bind. apply (rwp_look cap cap_ge); [exact HU|lia|]. intros v1 v2 HV _ _ BV _. apply IH; assumption. }
  destruct (is_blank (rn1 s1 0)) eqn:Eb.
  - apply rwp_bind. apply rwp_get. cbv beta. sr_sync HS.
    destruct (negb (sc_lws s1)); [apply Hblank|].
    destruct ((Z.of_N (m_col (sc_mark s1)) <? indent)%Z && (rn1 s1 0 =? 9)%N); [|apply Hblank].
    (* a tab in the indentation *)
    eapply rwp_bind_rpost; [apply (skip_ws_to_eol_ok cap cap_ge); exact HS|]. intros tw u1 u2 HU BU.
    apply rwp_bind. apply (rwp_next_is cap cap_ge); [exact HU|exact BU|]. cbv beta.
    destruct (is_breakz (rn1 u1 0)); [|apply rwp_fail; reflexivity].
    apply rwp_bind. apply (rwp_look cap cap_ge); [exact HU|lia|]. intros v1 v2 HV _ _ BV _. apply IH; assumption.
  - destruct (is_break (rn1 s1 0)) eqn:Ek; [|apply rwp_ret_rpost; [exact HS|lia]].
    apply rwp_bind. apply rwp_get. cbv beta. sr_sync HS.
    destruct (sc_lws s1).
    + apply rwp_bind. apply (rwp_skip_break cap cap_ge); [exact HS|exact HB|]. intros u1 u2 HU _ _ _.
      apply rwp_bind. apply (rwp_look cap cap_ge); [exact HU|lia|]. intros v1 v2 HV _ _ BV _. apply IH; assumption.
    + apply rwp_bind. apply (rwp_skip_break cap cap_ge); [exact HS|exact HB|]. intros u1 u2 HU _ _ _.
      apply rwp_bind. apply rwp_modify_skel; [rel_skel|reflexivity|reflexivity|]. intros w1 w2 HW _ _.
      apply rwp_bind. apply (rwp_look cap cap_ge); [exact HW|lia|]. intros v1 v2 HV _ _ BV _. apply IH; assumption.
Qed.

(* the word loop (lockstep but for the chunk refreshes inside plain_chunk) *)
Lemma rel_plain_go F indent start : (strict = true -> 2 * N0 + 6 <= F) -> forall f acc lb tb ws endm s1 s2, SR s1 s2 ->
  rwp (plain_go sops F indent start f acc lb tb ws endm) (plain_go bops F indent start f acc lb tb ws endm)
      (rpost 0) s1 s2.
Proof using cap_ge.
  intros HF. induction f as [|f IH]; intros acc lb tb ws endm s1 s2 HS; cbn [plain_go]; [apply rwp_oof_l|].
  apply rwp_bind. apply (rwp_look cap cap_ge); [exact HS|lia|]. intros u1 u2 HU _ _ BU _.
  apply rwp_bind. apply rwp_get. cbv beta. sr_sync HU.
  apply rwp_bind.
  match goal with |- rwp _ _ ?Q _ _ => assert (HQ : forall di, Q di u1 di u2) end.
  2:{ destruct (sc_lws u1 && (m_col (sc_mark u1) =? 0)%N);
      [apply (rwp_next_is_document_indicator cap cap_ge); [exact HU|lia|apply HQ] | apply rwp_ret; exact (HQ false)]. }
  intros di. cbv beta.
  apply rwp_bind. apply (rwp_peek cap cap_ge); [exact HU|lia|]. cbv beta.
  destruct (di || (rn1 u1 0 =? 35)%N); [apply rwp_ret_rpost; [exact HU|lia]|].
  apply rwp_bind. apply (rwp_peekn cap cap_ge); [exact HU|lia|]. cbv beta zeta.
  match goal with |- rwp (if ?b then _ else _) _ _ _ _ => destruct b end; [apply rwp_fail; reflexivity|].
  apply rwp_bind.
  match goal with |- rwp _ _ ?Q _ _ => assert (HQ : forall cb, Q cb u1 cb u2) end.
  2:{ destruct (is_blank_or_breakz (rn1 u1 0));
      [apply rwp_ret; exact (HQ false) | apply (rwp_next_can_be_plain_scalar cap cap_ge); [exact HU|lia|apply HQ]]. }
  intros cb. cbv beta.
  apply rwp_bind.
  (* what happens after the word has been consumed: one buffered character is enough *)
  match goal with |- rwp _ _ ?Q _ _ => assert (HQ : forall r v1 v2, SR v1 v2 -> 1 <= bl2 v2 -> Q r v1 r v2) end.
  { intros [[[[acc' lb'] tb'] ws'] endm'] v1 v2 HV BV. cbv beta iota.
    apply rwp_bind. apply (rwp_peek cap cap_ge); [exact HV|exact BV|]. cbv beta.
    destruct (negb (is_blank (rn1 v1 0) || is_break (rn1 v1 0))); [apply rwp_ret_rpost; [exact HV|lia]|].
    apply rwp_bind. apply (rwp_look cap cap_ge); [exact HV|lia|]. intros w1 w2 HW _ _ BW _.
    eapply rwp_bind_rpost; [apply rel_plain_blanks; [exact HW|exact BW]|]. intros [[lb2 tb2] ws2] x1 x2 HX _.
    cbv beta iota.
    apply rwp_bind. apply rwp_get. cbv beta. sr_sync HX.
    match goal with |- rwp (if ?b then _ else _) _ _ _ _ => destruct b end; [apply rwp_ret_rpost; [exact HX|lia]|].
    apply IH. exact HX. }
  destruct cb; [|apply rwp_ret; refine (HQ (acc, lb, tb, ws, endm) u1 u2 HU _); lia].
  match goal with |- rwp _ _ ?Q' _ _ =>
    assert (HW : forall a1 l1 t1 w1,
      rwp (modify (set_lws false) ;;; skip_non_blank sops ;;; look sops (bufmaxlen sops) ;;;
           acc0 <- plain_chunk sops F 0 (rn1 u1 0 :: a1) ;; m <- mark ;; ret (acc0, l1, t1, w1, m))
          (modify (set_lws false) ;;; skip_non_blank bops ;;; look bops (bufmaxlen bops) ;;;
           acc0 <- plain_chunk bops F 0 (rn1 u1 0 :: a1) ;; m <- mark ;; ret (acc0, l1, t1, w1, m)) Q' u1 u2) end.
  { intros a1 l1 t1 w1.
    apply rwp_bind. apply rwp_modify_skel; [rel_skel|reflexivity|reflexivity|]. intros v1 v2 HV _ BV.
    apply rwp_bind. apply (rwp_skip_non_blank cap cap_ge); [exact HV|lia|]. intros x1 x2 HX _ _.
    apply rwp_bind. apply rwp_look_bufmax; [exact HX|]. intros y1 y2 HY _ _ BY _.
    apply rwp_bind. apply rwp_bound. intros BY1. eapply rwp_mono; [apply rel_plain_chunk; [exact HY|lia|]|].
    { intros E. specialize (HF E). apply bounded_strict in BY1; [|exact E].
      replace (Nat.leb (cap - 1) 0) with false by (symmetry; apply Nat.leb_gt; lia). lia. }
    intros acc1 z1 acc2 z2 (<- & HZ & BZ).
    apply rwp_bind. apply rwp_mark; [exact HZ|]. apply rwp_ret.
    refine (HQ (acc1, l1, t1, w1, sc_mark z1) z1 z2 HZ _). lia. }
  destruct (sc_lws u1); [destruct (negb lb); [|destruct (tb =? 0)%N]|]; exact (HW _ _ _ _).
Qed.

(* the contract *)
Theorem scan_plain_scalar_ok : rel_scan_plain_scalar cap strict N0.
Proof using cap_ge.
  unfold rel_scan_plain_scalar. intros F s1 s2 HF HS.
  rewrite (scan_plain_scalar_eq sops), (scan_plain_scalar_eq bops).
  apply rwp_bind. apply rwp_unroll_non_block_indents; [exact HS|]. intros u1 u2 HU _ _.
  apply rwp_bind. apply rwp_get. cbv beta zeta. sr_sync HU.
  match goal with |- rwp (if ?b then _ else _) _ _ _ _ => destruct b end; [apply rwp_fail; reflexivity|].
  eapply rwp_bind_rpost; [apply rel_plain_go; [exact HF|exact HU]|]. intros r v1 v2 HV _.
  apply rwp_bind. apply rwp_get. cbv beta. sr_sync HV.
  apply rwp_bind.
  match goal with |- rwp _ _ ?Q _ _ => assert (HQ : forall w1 w2, SR w1 w2 -> Q tt w1 tt w2) end.
  { intros w1 w2 HW. destruct (fst r); [apply rwp_fail; reflexivity|apply rwp_ret_rpost; [exact HW|lia]]. }
  destruct (sc_lws v1).
  - apply rwp_allow_simple_key; [exact HV|]. intros w1 w2 HW _ _. apply HQ. exact HW.
  - apply rwp_ret. apply HQ. exact HV.
Qed.

End RelPlain.

Print Assumptions scan_plain_scalar_ok.
