(* Joint proof "the scanner never exhausts its (linear) fuel" (see SCANFUEL.md): the family of directives, tags and
   anchors (Model/SDir.v).

   Every helper lemma has the continuation form
       rl s < F -> (forall r s', rl s' <= rl s -> lk s <= lk s' -> Q r s') -> fwp (f ...) Q s
   (or [rl s' < rl s] when the function certainly consumes a character).  Every fuelled loop of the family consumes
   one character per iteration, and the character has just been peeked and belongs to a class that excludes NUL
   (so it is really there and [rl] drops); the loop is started with [F > rl s], so it ends before the fuel does.
   [scan_uri_escapes] runs on a constant fuel 5: the first iteration fixes a width <= 4 and each later iteration
   decreases it, so at most 4 iterations are made. *)
From Coq Require Import List NArith ZArith Bool Arith Lia.
Import ListNotations.
Require Import Parser SBase SPrim SDir SScalar SFetch ScanFuel ScanFuelPrim.
Local Open Scope nat_scope.

(* the bulk loops of SPrim.v followed by the [adv_mark] of their count *)
Lemma c_skip_blanks {B} F (k : FM B) (Q : B -> fst_ -> Prop) s : rl s < F ->
  (forall s', rl s' <= rl s -> lk s <= lk s' -> fwp k Q s') ->
  fwp (bind (in_skip_while_blank str_ops F) (fun n => bind (adv_mark n) (fun _ => k))) Q s.
Proof.
  intros Hf HQ. apply fwp_bind. apply fwp_in_skip_while_blank; [exact Hf|]. intros n s1 A1 B1 _ _ _ _.
  apply fwp_bind. apply fwp_adv_mark. intros s2 R2 L2. apply HQ; [rewrite (rl_eq _ _ R2)|]; lia.
Qed.
Lemma c_fetch_alpha_adv {B} F acc (k : list chr * N -> FM B) (Q : B -> fst_ -> Prop) s : rl s < F ->
  (forall r s', rl s' <= rl s -> lk s <= lk s' -> fwp (k r) Q s') ->
  fwp (bind (in_fetch_while_alpha str_ops F acc) (fun r => bind (adv_mark (snd r)) (fun _ => k r))) Q s.
Proof.
  intros Hf HQ. apply fwp_bind. apply fwp_in_fetch_while_alpha; [exact Hf|]. intros r s1 A1 B1 _ _ _ _.
  apply fwp_bind. apply fwp_adv_mark. intros s2 R2 L2. apply HQ; [rewrite (rl_eq _ _ R2)|]; lia.
Qed.

(* scan_uri_escapes: constant fuel 5, at most 4 iterations; consumes '%' each time *)
Lemma c_uri_escapes mk (Q : chr -> fst_ -> Prop) s :
  (forall c s', rl s' < rl s -> lk s <= lk s' -> Q c s') -> fwp (scan_uri_escapes str_ops mk) Q s.
Proof.
  intros HQ. cbv beta delta [scan_uri_escapes].
  match goal with |- fwp (?g 5 0%N 0%N 0%N true) _ _ =>
    cut (forall n w ln cd fs s, (fs = true -> 5 <= n) -> (fs = false -> N.to_nat w < n) ->
           (forall c s', rl s' < rl s -> lk s <= lk s' -> Q c s') -> fwp (g n w ln cd fs) Q s);
    [intros H; apply H; [lia|discriminate|exact HQ]|] end.
  clear s HQ. induction n as [|n IH]; intros w ln cd fs s Ht Hf HQ; [exfalso; destruct fs; [specialize (Ht eq_refl)|specialize (Hf eq_refl)]; lia|].
  cbv beta iota zeta.
  apply fwp_bind. apply fwp_look_rl. intros s1 _ E1 _ L1 _ _.
  apply fwp_bind. apply fwp_peek. apply fwp_bind. apply fwp_peekn. apply fwp_bind. apply fwp_peekn. cbv beta.
  difE Ec; [apply fwp_fail|].
  apply negb_false_iff in Ec. apply andb_true_iff in Ec as [Ec H2]. apply andb_true_iff in Ec as [H0 H1].
  assert (Hpos : 0 < rl s1) by (apply fnth0_nonzero_rl, (eqb_nz _ 37%N); [exact H0|discriminate]).
  apply fwp_bind.
  match goal with |- fwp _ ?QQ _ =>
    assert (HC : forall r, (if fs then N.to_nat (fst r) <= 4 else fst r = w) -> QQ r s1) end.
  { intros [w' cd'] Hw. cbn [fst] in Hw. cbv beta iota zeta.
    apply fwp_bind. apply fwp_skip_n_non_blank. intros s2 D2 _ L2.
    difE Ew.
    - dif; [apply fwp_ret; apply HQ; lia|apply fwp_fail].
    - apply N.eqb_neq in Ew. apply IH; [discriminate| |intros c s' A B; apply HQ; lia].
      intros _. destruct fs; [specialize (Ht eq_refl); lia|specialize (Hf eq_refl); subst w'; lia]. }
  destruct fs; repeat dif; try apply fwp_fail;
    match goal with |- fwp (ret ?x) _ _ => apply (HC x) end; cbn [fst]; try reflexivity; lia.
Qed.

(* tags *)
Lemma c_tag_handle F d mk (Q : list chr -> fst_ -> Prop) s : rl s < F ->
  (forall r s', rl s' < rl s -> lk s <= lk s' -> Q r s') -> fwp (scan_tag_handle str_ops F d mk) Q s.
Proof.
  intros Hf HQ. unfold scan_tag_handle.
  apply fwp_bind. apply fwp_look_ch_rl. intros s1 _ E1 C1 L1 _ _. cbv beta.
  difE E33; [apply fwp_fail|]. apply negb_false_iff in E33.
  apply fwp_bind. apply fwp_skip_non_blank_real; [rewrite C1; apply (eqb_nz _ 33%N); [exact E33|discriminate]|].
  intros s2 D2 _ L2.
  apply c_fetch_alpha_adv; [lia|]. intros r s3 A3 B3.
  apply fwp_bind. apply fwp_peek. cbv beta.
  dif.
  - apply fwp_bind. apply fwp_skip_non_blank. intros s4 D4 _ L4.
    apply fwp_ret. apply HQ; lia.
  - dif; [apply fwp_fail|apply fwp_ret; apply HQ; lia].
Qed.

Lemma c_uri_loop F p mk acc (Q : list chr * N -> fst_ -> Prop) s : p 0%N = false -> rl s < F ->
  (forall r s', rl s' <= rl s -> lk s <= lk s' -> Q r s') -> fwp (uri_loop str_ops F p mk acc) Q s.
Proof.
  intros Hp Hf HQ. unfold uri_loop.
  match goal with |- fwp (?g F acc 0%N) _ _ =>
    cut (forall f a n s, rl s < f -> (forall r s', rl s' <= rl s -> lk s <= lk s' -> Q r s') -> fwp (g f a n) Q s);
    [intros H; apply H; assumption|] end.
  clear s Hf HQ. induction f as [|f IH]; intros a n s Hf HQ; [exfalso; lia|].
  cbv beta iota zeta.
  apply fwp_bind. apply fwp_look_ch_rl. intros s1 _ E1 C1 L1 _ _. cbv beta.
  difE Ep; [|apply fwp_ret; apply HQ; lia].
  dif.
  - apply fwp_bind. apply c_uri_escapes. intros e s2 A2 B2.
    apply IH; [lia|]. intros r s' A B. apply HQ; lia.
  - apply fwp_bind. apply fwp_skip_non_blank_real; [rewrite C1; exact (pred_nz p _ Hp Ep)|]. intros s2 D2 _ L2.
    apply IH; [lia|]. intros r s' A B. apply HQ; lia.
Qed.

Lemma c_tag_prefix F mk (Q : list chr -> fst_ -> Prop) s : rl s < F ->
  (forall r s', rl s' <= rl s -> lk s <= lk s' -> Q r s') -> fwp (scan_tag_prefix str_ops F mk) Q s.
Proof.
  intros Hf HQ. unfold scan_tag_prefix.
  apply fwp_bind. apply fwp_look_ch_rl. intros s1 _ E1 _ L1 _ _. cbv beta.
  apply fwp_bind.
  match goal with |- fwp _ ?QQ _ => assert (HC : forall acc s', rl s' <= rl s -> lk s <= lk s' -> QQ acc s') end.
  { intros acc s' A' B'. cbv beta.
    apply fwp_bind. apply c_uri_loop; [reflexivity|lia|]. intros r s2 A2 B2.
    apply fwp_ret. apply HQ; lia. }
  dif.
  - apply fwp_bind. apply fwp_skip_non_blank. intros s2 D2 _ L2.
    apply fwp_ret. apply HC; lia.
  - dif; [apply fwp_fail|]. dif.
    + apply fwp_bind. apply c_uri_escapes. intros e s2 A2 B2. apply fwp_ret. apply HC; lia.
    + apply fwp_bind. apply fwp_skip_non_blank. intros s2 D2 _ L2.
      apply fwp_ret. apply HC; lia.
Qed.

(* the first character (seen by the caller, not NUL) is consumed *)
Lemma c_verbatim_tag F mk (Q : list chr -> fst_ -> Prop) s : rl s < F -> fnth s 0 <> 0%N ->
  (forall r s', rl s' < rl s -> lk s <= lk s' -> Q r s') -> fwp (scan_verbatim_tag str_ops F mk) Q s.
Proof.
  intros Hf Hnz HQ. unfold scan_verbatim_tag.
  apply fwp_bind. apply fwp_skip_non_blank_real; [exact Hnz|]. intros s1 D1 _ L1.
  apply fwp_bind. apply fwp_skip_non_blank. intros s2 D2 _ L2.
  apply fwp_bind. apply c_uri_loop; [reflexivity|lia|]. intros r s3 A3 B3.
  apply fwp_bind. apply fwp_peek. cbv beta.
  dif; [apply fwp_fail|].
  apply fwp_bind. apply fwp_skip_non_blank. intros s4 D4 _ L4.
  apply fwp_ret. apply HQ; lia.
Qed.

Lemma c_tag_shorthand_suffix F head mk (Q : list chr -> fst_ -> Prop) s : rl s < F ->
  (forall r s', rl s' <= rl s -> lk s <= lk s' -> Q r s') -> fwp (scan_tag_shorthand_suffix str_ops F head mk) Q s.
Proof.
  intros Hf HQ. unfold scan_tag_shorthand_suffix. cbv beta zeta.
  apply fwp_bind. apply c_uri_loop; [reflexivity|exact Hf|]. intros r s1 A1 B1.
  dif; [apply fwp_fail|apply fwp_ret; apply HQ; lia].
Qed.

Theorem scan_tag_ok : fuel_scan_tag.
Proof.
  intros F s HF Hnz. unfold fuel_ok in HF.
  unfold scan_tag, mark.
  apply fwp_bind. apply fwp_gets.
  apply fwp_bind. apply fwp_look_rl. intros s1 _ E1 C1 L1 _ _.
  apply fwp_bind. apply fwp_nth_char_is.
  apply fwp_bind.
  match goal with |- fwp _ ?QQ _ => assert (HC : forall hs s', rl s' < rl s -> lk s <= lk s' -> QQ hs s') end.
  { intros hs s' A' B'. cbv beta.
    apply fwp_bind. apply fwp_look_ch_rl. intros s2 _ E2 _ L2 _ _.
    apply fwp_bind. apply fwp_flow_level.
    dif; [|apply fwp_fail].
    apply fwp_bind. apply fwp_gets. apply fwp_ret. unfold lt_post. split; lia. }
  dif.
  - apply fwp_bind. apply c_verbatim_tag; [lia|rewrite C1; exact Hnz|].
    intros sfx s2 A2 B2. apply fwp_ret. apply HC; lia.
  - apply fwp_bind. apply c_tag_handle; [lia|]. intros h s2 A2 B2.
    dif.
    + apply fwp_bind. apply c_tag_shorthand_suffix; [lia|]. intros sfx s3 A3 B3.
      apply fwp_ret. apply HC; lia.
    + apply fwp_bind. apply c_tag_shorthand_suffix; [lia|]. intros sfx s3 A3 B3.
      destruct sfx; apply fwp_ret; apply HC; lia.
Qed.

(* anchors and aliases *)
Theorem scan_anchor_ok : fuel_scan_anchor.
Proof.
  intros F alias s HF Hnz. unfold fuel_ok in HF.
  unfold scan_anchor, mark.
  apply fwp_bind. apply fwp_gets.
  apply fwp_bind. apply fwp_skip_non_blank_real; [exact Hnz|]. intros s1 D1 _ L1.
  apply fwp_bind.
  match goal with |- fwp (?g F []) ?QQ _ =>
    set (Q' := QQ);
    assert (HC : forall r s', rl s' < rl s -> lk s <= lk s' -> Q' r s');
    [|cut (forall f acc s', rl s' < f -> rl s' < rl s -> lk s <= lk s' -> fwp (g f acc) Q' s');
      [intros H; apply H; lia|]] end.
  { intros r s' A' B'. unfold Q'. destruct r; [apply fwp_fail|].
    apply fwp_bind. apply fwp_gets. apply fwp_ret. unfold lt_post. split; lia. }
  induction f as [|f IH]; intros acc s' Hf A' B'; [exfalso; lia|].
  cbv beta iota zeta.
  apply fwp_bind. apply fwp_look_ch_rl. intros s2 _ E2 C2 L2 _ _. cbv beta.
  difE Ea.
  - apply fwp_bind. apply fwp_skip_non_blank_real; [rewrite C2; exact (pred_nz is_anchor_char _ eq_refl Ea)|].
    intros s3 D3 _ L3. apply IH; lia.
  - apply fwp_ret. apply HC; lia.
Qed.

(* directives *)
Lemma c_version_number F mk (Q : N -> fst_ -> Prop) s : rl s < F ->
  (forall r s', rl s' <= rl s -> lk s <= lk s' -> Q r s') -> fwp (scan_version_directive_number str_ops F mk) Q s.
Proof.
  intros Hf HQ. unfold scan_version_directive_number.
  match goal with |- fwp (?g F 0%N 0%N) _ _ =>
    cut (forall f val len s, rl s < f -> (forall r s', rl s' <= rl s -> lk s <= lk s' -> Q r s') -> fwp (g f val len) Q s);
    [intros H; apply H; assumption|] end.
  clear s Hf HQ. induction f as [|f IH]; intros val len s Hf HQ; [exfalso; lia|].
  cbv beta iota zeta.
  apply fwp_bind. apply fwp_look_ch_rl. intros s1 _ E1 C1 L1 _ _. cbv beta.
  difE Ed.
  - dif; [apply fwp_fail|].
    apply fwp_bind. dif; [apply fwp_panic|]. apply fwp_ret.
    apply fwp_bind. apply fwp_skip_non_blank_real; [rewrite C1; exact (pred_nz is_digit _ eq_refl Ed)|].
    intros s2 D2 _ L2. apply IH; [lia|]. intros r s' A B. apply HQ; lia.
  - dif; [apply fwp_fail|apply fwp_ret; apply HQ; lia].
Qed.

Lemma c_version_value F mk (Q : token -> fst_ -> Prop) s : rl s < F ->
  (forall t s', rl s' <= rl s -> lk s <= lk s' -> Q t s') -> fwp (scan_version_directive_value str_ops F mk) Q s.
Proof.
  intros Hf HQ. unfold scan_version_directive_value, mark.
  apply c_skip_blanks; [exact Hf|]. intros s1 A1 B1.
  apply fwp_bind. apply c_version_number; [lia|]. intros major s2 A2 B2.
  apply fwp_bind. apply fwp_peek. cbv beta.
  dif; [apply fwp_fail|].
  apply fwp_bind. apply fwp_skip_non_blank. intros s3 D3 _ L3.
  apply fwp_bind. apply c_version_number; [lia|]. intros minor s4 A4 B4.
  apply fwp_bind. apply fwp_gets. apply fwp_ret. apply HQ; lia.
Qed.

Lemma c_tag_directive_value F mk (Q : token -> fst_ -> Prop) s : rl s < F ->
  (forall t s', rl s' <= rl s -> lk s <= lk s' -> Q t s') -> fwp (scan_tag_directive_value str_ops F mk) Q s.
Proof.
  intros Hf HQ. unfold scan_tag_directive_value, mark.
  apply c_skip_blanks; [exact Hf|]. intros s1 A1 B1.
  apply fwp_bind. apply c_tag_handle; [lia|]. intros h s2 A2 B2.
  apply c_skip_blanks; [lia|]. intros s3 A3 B3.
  apply fwp_bind. apply c_tag_prefix; [lia|]. intros p s4 A4 B4.
  apply fwp_bind. apply fwp_look_rl. intros s5 _ E5 _ L5 _ _.
  apply fwp_bind. apply fwp_peek. cbv beta.
  dif; [|apply fwp_fail].
  apply fwp_bind. apply fwp_gets. apply fwp_ret. apply HQ; lia.
Qed.

Lemma c_directive_name F (Q : list chr -> fst_ -> Prop) s : rl s < F ->
  (forall r s', rl s' <= rl s -> lk s <= lk s' -> Q r s') -> fwp (scan_directive_name str_ops F) Q s.
Proof.
  intros Hf HQ. unfold scan_directive_name, mark.
  apply fwp_bind. apply fwp_gets.
  apply c_fetch_alpha_adv; [exact Hf|]. intros r s1 A1 B1.
  destruct (fst r) as [|x l]; [apply fwp_fail|].
  apply fwp_bind. apply fwp_peek. cbv beta.
  dif; [apply fwp_ret; apply HQ; lia|apply fwp_fail].
Qed.

Section FuelDir.
Hypothesis H_skip_ws_to_eol : fuel_skip_ws_to_eol.

Theorem scan_directive_ok : fuel_scan_directive.
Proof using H_skip_ws_to_eol.
  intros F s HF Hnz. pose proof HF as HF'. unfold fuel_ok in HF'.
  unfold scan_directive, mark.
  apply fwp_bind. apply fwp_gets.
  apply fwp_bind. apply fwp_skip_non_blank_real; [exact Hnz|]. intros s1 D1 _ L1.
  apply fwp_bind. apply c_directive_name; [lia|]. intros name s2 A2 B2.
  apply fwp_bind.
  match goal with |- fwp _ ?QQ _ => assert (HC : forall tk s', rl s' < rl s -> lk s <= lk s' -> QQ tk s') end.
  { intros tk s' A' B'. cbv beta.
    apply fwp_bind. eapply fwp_mono; [apply H_skip_ws_to_eol; apply (fuel_ok_le F s); [exact HF|lia]|].
    intros tw s3 [A3 B3].
    apply fwp_bind. apply fwp_next_is.
    dif; [|apply fwp_fail].
    apply fwp_bind. apply fwp_look_rl. intros s4 _ E4 _ L4 _ _.
    apply fwp_bind. apply fwp_skip_linebreak. intros s5 A5 B5 _.
    apply fwp_ret. unfold lt_post. split; lia. }
  dif.
  - apply c_version_value; [lia|]. intros tk s3 A3 B3. apply HC; lia.
  - dif.
    + apply c_tag_directive_value; [lia|]. intros tk s3 A3 B3. apply HC; lia.
    + apply fwp_skip_non_breakz_adv; [lia|]. intros s3 A3 B3 _.
      apply fwp_bind. apply fwp_gets. apply fwp_ret. apply HC; lia.
Qed.

End FuelDir.

Print Assumptions scan_directive_ok.
Print Assumptions scan_tag_ok.
Print Assumptions scan_anchor_ok.
Check scan_directive_ok.
Check scan_tag_ok.
Check scan_anchor_ok.
