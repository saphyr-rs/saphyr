(* C16 — the other direction at TEXT level: a tag (or %TAG prefix) whose characters are all tag/uri characters
   but whose percent-escapes have NO decoding (invalid escape, incorrect leading or trailing byte, surrogate,
   above U+10FFFF, NON-SHORTEST FORM) is a scanner error (sites 50..53) at the beginning of the tag / directive —
   for every such text; composed with the parser: the run ends with that scanner error and no node event. *)
From Coq Require Import List NArith ZArith Bool Lia.
Import ListNotations.
Require Import Parser TagSpec SBase SPrim SDir SScalar SFetch Pipe Drivers TagRun TagUtf8 TagScanText TagProofs TagPipeline ScalarKit.
Open Scope N_scope.
Open Scope mon_scope.

(* 1. Escapes do not reach into what follows the text *)
(* a character that can neither begin nor continue an escape *)
Definition stops_escape (c : N) : Prop := c <> 37 /\ hex_value c = None.

Lemma take_escape_app_inv : forall l rest b r',
  stops_escape (hd 0 rest) -> take_escape (l ++ rest) = Some (b, r') ->
  exists r, take_escape l = Some (b, r) /\ r' = r ++ rest.
Proof.
  intros l rest b r' [H37 Hhex] H.
  destruct l as [|a [|x [|y l']]].
  - cbn [app] in H. destruct (take_escape_inv _ _ _ H) as [x [y [hi [lo [E _]]]]].
    destruct rest as [|r0 rest']; [discriminate|]. cbn [hd] in H37. inversion E; subst. contradiction.
  - cbn [app] in H. destruct (take_escape_inv _ _ _ H) as [x [y [hi [lo [E [Hx _]]]]]].
    destruct rest as [|r0 rest']; [discriminate|]. cbn [hd] in Hhex. inversion E; subst. congruence.
  - cbn [app] in H. destruct (take_escape_inv _ _ _ H) as [x' [y [hi [lo [E [_ [Hy _]]]]]]].
    destruct rest as [|r0 rest']; [discriminate|]. cbn [hd] in Hhex. inversion E; subst. congruence.
  - cbn [app] in H. unfold take_escape in *. destruct (a =? percent); [|discriminate].
    destruct (hex_value x); [|discriminate]. destruct (hex_value y); [|discriminate].
    inversion H; subst. eexists. split; reflexivity.
Qed.

Lemma take_escapes_app_inv : forall n l rest bs r',
  stops_escape (hd 0 rest) -> take_escapes n (l ++ rest) = Some (bs, r') ->
  exists r, take_escapes n l = Some (bs, r) /\ r' = r ++ rest.
Proof.
  induction n as [|n IH]; intros l rest bs r' HS H; cbn [take_escapes] in *.
  - inversion H; subst. exists l. split; reflexivity.
  - destruct (take_escape (l ++ rest)) as [[b r1]|] eqn:E1; [|discriminate].
    destruct (take_escape_app_inv _ _ _ _ HS E1) as [r [E1' ->]]. rewrite E1'.
    destruct (take_escapes n (r ++ rest)) as [[bs1 r2]|] eqn:E2; [|discriminate].
    destruct (IH _ _ _ _ HS E2) as [r3 [E2' ->]]. rewrite E2'. inversion H; subst.
    eexists. split; reflexivity.
Qed.

Lemma take_escaped_char_app_inv : forall l rest d r',
  stops_escape (hd 0 rest) -> take_escaped_char (l ++ rest) = Some (d, r') ->
  exists r, take_escaped_char l = Some (d, r) /\ r' = r ++ rest.
Proof.
  intros l rest d r' HS H. unfold take_escaped_char in *.
  destruct (take_escape (l ++ rest)) as [[b r1]|] eqn:E1; [|discriminate].
  destruct (take_escape_app_inv _ _ _ _ HS E1) as [r [E1' ->]]. rewrite E1'.
  destruct (sequence_length b) as [[|n]|]; try discriminate.
  destruct (take_escapes n (r ++ rest)) as [[bs r2]|] eqn:E2; [|discriminate].
  destruct (take_escapes_app_inv _ _ _ _ _ HS E2) as [r3 [E2' ->]]. rewrite E2'.
  destruct (utf8_decode (b :: bs)); [|discriminate]. inversion H; subst. eexists. split; reflexivity.
Qed.

Lemma take_escaped_char_none_app : forall l rest,
  stops_escape (hd 0 rest) -> take_escaped_char l = None -> take_escaped_char (l ++ rest) = None.
Proof.
  intros l rest HS H. destruct (take_escaped_char (l ++ rest)) as [[d r']|] eqn:E; [|reflexivity].
  destruct (take_escaped_char_app_inv _ _ _ _ HS E) as [r [E' _]]. congruence.
Qed.

(* 2. The uri loop on a text without decoding *)
Definition scan_error {A} (o : outcome (A * sc strin)) (mk : marker) : Prop :=
  exists site, o = SBase.Err site mk /\ 50 <= site <= 53.

Lemma bind_error : forall {A B} (m : @M strin A) (f : A -> @M strin B) s mk,
  scan_error (m s) mk -> scan_error (bind m f s) mk.
Proof. intros A B m f s mk [site [E H]]. exists site. unfold bind. rewrite E. auto. Qed.

Lemma bind_eq_error : forall {A B} (m : @M strin A) (f : A -> @M strin B) s a s1 mk,
  m s = SBase.Ok (a, s1) -> scan_error (f a s1) mk -> scan_error (bind m f s) mk.
Proof. intros A B m f s a s1 mk E H. unfold bind. rewrite E. exact H. Qed.

Definition undecodable (l : list N) : Prop := percent_decode l = None.

Lemma undecodable_not : forall l t, undecodable l -> ~ decodes l t.
Proof. intros l t H HD. apply percent_decode_decodes in HD. unfold undecodable in H. congruence. Qed.

Lemma undecodable_tail : forall c l, c <> 37 -> undecodable (c :: l) -> undecodable l.
Proof.
  intros c l Hc H. unfold undecodable in *. destruct (percent_decode l) as [t|] eqn:E; [|reflexivity].
  exfalso. apply percent_decode_decodes in E. apply (undecodable_not _ (c :: t) H). apply dec_char; assumption.
Qed.

Lemma undecodable_after : forall l d r, take_escaped_char l = Some (d, r) -> undecodable l -> undecodable r.
Proof.
  intros l d r HE H. unfold undecodable in *. destruct (percent_decode r) as [t|] eqn:E; [|reflexivity].
  exfalso. apply percent_decode_decodes in E. apply (undecodable_not _ (d :: t) H). eapply dec_esc; eassumption.
Qed.

Lemma scan_uri_escapes_error : forall mk l lk m w s,
  take_escaped_char l = None -> scan_error (scan_uri_escapes str_ops mk (st l lk m w s)) mk.
Proof.
  intros mk l lk m w s H. pose proof (scan_uri_escapes_exact mk (st l lk m w s)) as X.
  unfold exact_post in X. cbv zeta in X. rewrite st_chars in X. rewrite H in X. exact X.
Qed.

Lemma ul_go_reject : forall p mk n0 l, (length l <= n0)%nat -> undecodable l -> Forall (fun c => p c = true) l ->
  forall f acc n rest lk m w s, stops_escape (hd 0 rest) -> (length l < f)%nat ->
  scan_error (ul_go p mk f acc n (st (l ++ rest) lk m w s)) mk.
Proof.
  intros p mk n0. induction n0 as [|n0 IH]; intros l Hn HU HF f acc n rest lk m w s HS HL.
  - destruct l; [|cbn in Hn; lia]. discriminate HU.
  - destruct l as [|c l]; [discriminate HU|]. cbn [length] in Hn, HL.
    destruct f as [|f]; [lia|]. inversion HF as [|? ? Hpc HF']; subst.
    cbn [ul_go app]. eapply bind_eq_error; [apply look_ch_st|]. cbn [nth]. rewrite Hpc.
    destruct (N.eqb_spec c 37) as [->|Hc].
    + (* an escape *)
      destruct (take_escaped_char (37 :: l)) as [[d r]|] eqn:E.
      * pose proof (undecodable_after _ _ _ E HU) as HUr.
        pose proof (take_escaped_char_shorter _ _ _ E) as HX. cbn [length] in HX.
        destruct (scan_escape_st mk _ _ _ E) as [es [k [EL [_ ES]]]]. injection EL as ->.
        assert (HFr : Forall (fun c => p c = true) r) by (apply Forall_app in HF'; apply HF').
        rewrite <- app_assoc. eapply bind_eq_error; [apply ES|].
        apply IH; [lia|exact HUr|exact HFr|exact HS|lia].
      * apply bind_error. apply scan_uri_escapes_error.
        change (37 :: l ++ rest) with ((37 :: l) ++ rest). apply take_escaped_char_none_app; assumption.
    + (* an ordinary character *)
      eapply bind_eq_error; [apply skip_non_blank_st|]. cbn [tl].
      apply IH; [lia|apply (undecodable_tail c l Hc HU)|exact HF'|exact HS|lia].
Qed.

(* 3. scan_tag and scan_directive on texts without decoding *)
Lemma bbz_stops : forall c, is_blank_or_breakz c = true -> stops_escape c.
Proof. intros c H. apply bbz_cases in H. destruct H as [->|[->|[->|[->| ->]]]]; split; try discriminate; reflexivity. Qed.

Lemma tag_end_stops : forall fl c, tag_end fl c = true -> stops_escape c.
Proof.
  intros fl c H. unfold tag_end in H. apply orb_true_iff in H. destruct H as [H|H]; [apply bbz_stops; exact H|].
  apply andb_true_iff in H. destruct H as [_ H]. apply flow_cases in H.
  destruct H as [->|[->|[->|[->| ->]]]]; split; try discriminate; reflexivity.
Qed.

Lemma undecodable_app_plain : forall wd l, Forall (fun c => is_alpha c = true) wd -> undecodable (wd ++ l) -> undecodable l.
Proof.
  induction wd as [|c wd IH]; intros l HF H; [exact H|]. inversion HF as [|? ? Hc HF']; subst.
  apply IH; [exact HF'|]. apply (undecodable_tail c); [apply (alpha_not c Hc)|exact H].
Qed.

Inductive bad_tag_spelling : list N -> Prop :=
| bt_verbatim : forall l, Forall (fun c => is_uri_char c = true) l -> undecodable l -> bad_tag_spelling (verbatim_text l)
| bt_named : forall name l, Forall (fun c => is_alpha c = true) name -> Forall (fun c => is_tag_char c = true) l ->
    undecodable l -> bad_tag_spelling (named_text name l)
| bt_local : forall l, Forall (fun c => is_tag_char c = true) l -> undecodable l -> bad_tag_spelling (local_text l).

Theorem scan_tag_reject : forall F ttext rest lk m w s,
  bad_tag_spelling ttext -> (length ttext < F)%nat -> tag_end (sc_flow_level s) (hd 0 rest) = true ->
  scan_error (scan_tag str_ops F (st (ttext ++ rest) lk m w s)) m.
Proof.
  intros F ttext rest lk m w s HB HL HE. pose proof (tag_end_stops _ _ HE) as HS.
  unfold scan_tag. inversion HB as [l HF HU|name l HN HF HU|l HF HU]; subst.
  - (* verbatim *)
    unfold verbatim_text in *. cbn [app length] in *. rewrite app_length in HL. cbn [length] in HL.
    rewrite <- app_assoc. cbn [app].
    eapply bind_eq_error; [apply mark_st|]. eapply bind_eq_error; [apply look_st|].
    eapply bind_eq_error; [apply nth_char_is_st|]. cbn [nth]. change (60 =? 60) with true. cbv iota.
    apply bind_error. apply bind_error. unfold scan_verbatim_tag.
    eapply bind_eq_error; [apply skip_non_blank_st|]. eapply bind_eq_error; [apply skip_non_blank_st|]. cbn [tl].
    apply bind_error. rewrite uri_loop_go.
    apply (ul_go_reject _ m (length l) l ltac:(lia) HU HF F [] 0 (62 :: rest)); [split; [discriminate|reflexivity]|lia].
  - (* named *)
    unfold named_text, named_handle in *. cbn [app length] in *. rewrite !app_length in HL. cbn [length] in HL.
    rewrite <- !app_assoc. cbn [app].
    eapply bind_eq_error; [apply mark_st|]. eapply bind_eq_error; [apply look_st|].
    eapply bind_eq_error; [apply nth_char_is_st|]. cbn [nth]. rewrite (alpha_head_not_60 _ _ HN). cbv iota.
    apply bind_error. eapply bind_eq_error; [apply scan_tag_handle_named; [exact HN|lia]|].
    rewrite named_cond. apply bind_error. unfold scan_tag_shorthand_suffix. cbv zeta. apply bind_error.
    rewrite uri_loop_go. apply (ul_go_reject _ m (length l) l ltac:(lia) HU HF); [exact HS|lia].
  - (* local *)
    unfold local_text in *. cbn [app length] in *.
    destruct (tag_end_facts _ _ HE) as [HT [HA [H33 H60]]].
    destruct (alpha_split_spec l) as [Hl [Hwd Hl2]].
    set (wd := fst (alpha_split l)) in *. set (l2 := snd (alpha_split l)) in *. clearbody wd l2.
    assert (HF2 : Forall (fun c => is_tag_char c = true) l2) by (rewrite Hl in HF; apply Forall_app in HF; apply HF).
    assert (HU2 : undecodable l2) by (rewrite Hl in HU; apply (undecodable_app_plain wd l2 Hwd HU)).
    assert (Hl2ne : l2 <> []) by (intros ->; discriminate HU2).
    assert (HLl : (length l = length wd + length l2)%nat) by (rewrite Hl at 1; apply app_length).
    destruct l2 as [|c2 l2']; [contradiction|]. pose proof (Forall_inv HF2) as Hc2. cbv beta in Hc2.
    eapply bind_eq_error; [apply mark_st|]. eapply bind_eq_error; [apply look_st|].
    eapply bind_eq_error; [apply nth_char_is_st|]. cbn [nth].
    assert (H1 : (@nth N 0 (l ++ rest) 0 =? 60) = false).
    { rewrite nth0_hd. apply N.eqb_neq. rewrite Hl, <- app_assoc.
      destruct wd as [|c wd']; [cbn [app hd]; apply (tag_char_not c2 Hc2)|].
      cbn [app hd]. inversion Hwd as [|? ? Hc _]; subst. apply (alpha_not c Hc). }
    rewrite H1. cbv iota. apply bind_error.
    replace (33 :: l ++ rest) with (33 :: wd ++ (c2 :: l2') ++ rest) by (rewrite Hl, <- app_assoc; reflexivity).
    eapply bind_eq_error.
    { apply scan_tag_handle_primary; [exact Hwd|lia|cbn [app hd]; apply Hl2; discriminate
                                     |cbn [app hd]; apply (tag_char_not c2 Hc2)|discriminate]. }
    match goal with |- context [if ?c then _ else _] => destruct c end.
    + apply bind_error. unfold scan_tag_shorthand_suffix. cbv zeta. apply bind_error. rewrite uri_loop_go.
      apply (ul_go_reject _ m (length (c2 :: l2')) (c2 :: l2') ltac:(lia) HU2 HF2); [exact HS|lia].
    + apply bind_error. unfold scan_tag_shorthand_suffix. cbv zeta. apply bind_error. rewrite uri_loop_go.
      apply (ul_go_reject _ m (length (c2 :: l2')) (c2 :: l2') ltac:(lia) HU2 HF2); [exact HS|lia].
Qed.

(* the prefix of a %TAG directive *)
Lemma scan_tag_prefix_reject : forall F mk l rest lk m w s,
  undecodable l -> prefix_text l -> stops_escape (hd 0 rest) -> (length l < F)%nat ->
  scan_error (scan_tag_prefix str_ops F mk (st (l ++ rest) lk m w s)) mk.
Proof.
  intros F mk l rest lk m w s HU [Hne [Hhd HF]] HS HL. unfold scan_tag_prefix.
  destruct l as [|c l1]; [contradiction|]. cbn [hd] in Hhd. cbn [length] in HL.
  inversion HF as [|? ? Hu HF1]; subst. cbn [app].
  eapply bind_eq_error; [apply look_ch_st|]. cbn [nth].
  destruct (N.eqb_spec c 37) as [->|Hc].
  - (* an escape first *)
    change (37 =? 33) with false. change (negb (is_tag_char 37)) with false. change (37 =? 37) with true. cbv iota.
    destruct (take_escaped_char (37 :: l1)) as [[d r]|] eqn:E.
    + pose proof (undecodable_after _ _ _ E HU) as HUr.
      pose proof (take_escaped_char_shorter _ _ _ E) as HX. cbn [length] in HX.
      destruct (scan_escape_st mk _ _ _ E) as [es [k [EL [_ ES]]]]. injection EL as ->.
      assert (HFr : Forall (fun c => is_uri_char c = true) r) by (apply Forall_app in HF1; apply HF1).
      rewrite <- app_assoc. rewrite bind_assoc. eapply bind_eq_error; [apply ES|].
      eapply bind_eq_error; [apply ret_st|].
      apply bind_error. rewrite uri_loop_go.
      apply (ul_go_reject _ mk (length r) r ltac:(lia) HUr HFr); [exact HS|lia].
    + apply bind_error. apply bind_error. apply scan_uri_escapes_error.
      change (37 :: l1 ++ rest) with ((37 :: l1) ++ rest). apply take_escaped_char_none_app; assumption.
  - pose proof (undecodable_tail c l1 Hc HU) as HU1.
    assert (HG : forall acc lk0 w0 m0, scan_error
              ((r <- uri_loop str_ops F is_uri_char mk acc ;; ret (rev (fst r))) (st (l1 ++ rest) lk0 m0 w0 s)) mk).
    { intros acc lk0 w0 m0. apply bind_error. rewrite uri_loop_go.
      apply (ul_go_reject _ mk (length l1) l1 ltac:(lia) HU1 HF1); [exact HS|lia]. }
    destruct (N.eqb_spec c 33) as [->|H33].
    + rewrite bind_assoc. eapply bind_eq_error; [apply skip_non_blank_st|]. cbn [tl].
      eapply bind_eq_error; [apply ret_st|]. apply HG.
    + destruct Hhd as [Hhd|Hhd]; [contradiction|]. rewrite Hhd. cbn [negb].
      rewrite bind_assoc.
      eapply bind_eq_error; [apply skip_non_blank_st|]. cbn [tl]. eapply bind_eq_error; [apply ret_st|]. apply HG.
Qed.

(* `%TAG blanks handle blanks <prefix without decoding>` followed by a blank, a break or the end of input *)
Theorem scan_directive_reject : forall F bl1 h bl2 l rest lk m w s,
  bl1 <> [] -> Forall (fun c => is_blank c = true) bl1 -> dir_handle h ->
  bl2 <> [] -> Forall (fun c => is_blank c = true) bl2 ->
  undecodable l -> prefix_text l -> is_blank_or_breakz (hd 0 rest) = true ->
  (4 + length bl1 + length h + length bl2 + length l < F)%nat ->
  scan_error (scan_directive str_ops F (st (s_tag_line ++ bl1 ++ h ++ bl2 ++ l ++ rest) lk m w s)) m.
Proof.
  intros F bl1 h bl2 l rest lk m w s Hne1 HB1 HH Hne2 HB2 HU HP HR HL. unfold scan_directive, s_tag_line.
  cbn [app]. eapply bind_eq_error; [apply mark_st|]. eapply bind_eq_error; [apply skip_non_blank_st|]. cbn [tl].
  unfold scan_directive_name. rewrite bind_assoc. eapply bind_eq_error; [apply mark_st|].
  rewrite in_fetch_while_alpha_go.
  assert (Hb1 : is_alpha (hd 0 (bl1 ++ h ++ bl2 ++ l ++ rest)) = false
                /\ is_blank_or_breakz (hd 0 (bl1 ++ h ++ bl2 ++ l ++ rest)) = true).
  { destruct bl1 as [|b bl1']; [contradiction|]. inversion HB1 as [|? ? Hb _]; subst. cbn [app hd].
    assert (Hz : is_blank_or_breakz b = true) by (unfold is_blank_or_breakz; rewrite Hb; reflexivity).
    split; [apply (bbz_not_alpha b Hz)|exact Hz]. }
  rewrite bind_assoc.
  eapply bind_eq_error;
    [apply (fa_go_text [84; 65; 71] ltac:(repeat constructor) F [] 0 _ _ _ _ _ (proj1 Hb1) ltac:(cbn [length]; lia))|].
  cbn [fst snd rev app length]. rewrite bind_assoc. eapply bind_eq_error; [apply adv_mark_st|].
  rewrite bind_assoc. eapply bind_eq_error; [apply peek_st|]. rewrite nth0_hd, (proj2 Hb1).
  eapply bind_eq_error; [apply ret_st|].
  change (str_eqb [84; 65; 71] s_YAML) with false. change (str_eqb [84; 65; 71] s_TAG) with true. cbv iota.
  apply bind_error. unfold scan_tag_directive_value.
  assert (Hh : is_blank (hd 0 (h ++ bl2 ++ l ++ rest)) = false) by (inversion HH; reflexivity).
  rewrite (skip_blanks_text F bl1 _ _ _ _ s _ _ HB1 Hh ltac:(lia)).
  eapply bind_eq_error; [apply scan_tag_handle_directive; [exact HH|exact Hne2|exact HB2|lia]|].
  assert (Hl : is_blank (hd 0 (l ++ rest)) = false).
  { destruct l as [|c l']; [destruct HP as [HP _]; contradiction|]. exact (blank_not_prefix_head _ HP). }
  rewrite (skip_blanks_text F bl2 _ _ _ _ s _ _ HB2 Hl ltac:(lia)).
  apply bind_error. apply scan_tag_prefix_reject; [exact HU|exact HP|apply bbz_stops; exact HR|lia].
Qed.

(* 4. The whole pipeline on such texts *)
Lemma next_token_error : forall F l lk m w ska tp mk,
  (1 <= F)%nat -> scan_error (fetch_next_token str_ops F (top l lk m w [] ska tp false)) mk ->
  scan_error (next_token str_ops F (top l lk m w [] ska tp false)) mk.
Proof.
  intros F l lk m w ska tp mk HF H. destruct F as [|F]; [lia|].
  unfold next_token. eapply bind_eq_error; [apply get_any|]. fld. cbv iota.
  apply bind_error. cbn [fetch_more_tokens]. eapply bind_eq_error; [apply get_any|]. fld.
  eapply bind_eq_error; [apply ret_st|]. cbv iota. apply bind_error. exact H.
Qed.

Lemma scan_all_error : forall F fuel s acc site mk,
  next_token str_ops F s = SBase.Err site mk -> scan_all str_ops F (S fuel) s acc = (rev acc, SError site mk).
Proof. intros F fuel s acc site mk H. cbn [scan_all]. rewrite H. reflexivity. Qed.

(* the document line with a bad tag, from a top-level state at column 0 *)
Lemma scan_all_doc_line_reject : forall F fuel ttext lk i ln w ska tp acc,
  bad_tag_spelling (33 :: ttext) -> (S (length ttext) < F)%nat -> (2 <= F)%nat -> (2 <= fuel)%nat ->
  let m := {| m_index := i; m_line := ln; m_col := 0 |} in
  exists site, 50 <= site <= 53 /\
    scan_all str_ops F fuel (top (doc_line (33 :: ttext)) lk m w [] ska tp false) acc
    = (rev acc ++ [(spn m (adv 3 m), TDocumentStart)], SError site (mk_tag m)).
Proof.
  intros F fuel ttext lk i ln w ska tp acc HB HL HF Hfuel m. unfold doc_line. cbn [app].
  destruct fuel as [|[|fuel]]; try lia.
  destruct (fetch_document_start F 32 (33 :: ttext ++ [32; 120]) lk i ln w ska tp ltac:(lia) eq_refl) as [lk2 [_ E2]].
  cbv zeta in E2. fold m in E2.
  assert (HE : scan_error (next_token str_ops F (top (32 :: 33 :: ttext ++ [32; 120]) lk2 (adv 3 m) false [] false (tp + 1) false))
                 (mk_tag m)).
  { apply next_token_error; [lia|]. rewrite fetch_tag_reduce by lia. unfold fetch_tag.
    eapply bind_eq_error; [apply save_sk_top|]. eapply bind_eq_error; [apply disallow_top|]. apply bind_error.
    change (33 :: ttext ++ [32; 120]) with ((33 :: ttext) ++ [32; 120]).
    apply scan_tag_reject; [exact HB|exact HL|reflexivity]. }
  destruct HE as [site [HE Hs]]. exists site. split; [exact Hs|].
  cbn [scan_all]. rewrite (next_token_top F _ _ _ _ _ _ _ _ _ _ _ _ ltac:(lia) E2 ltac:(discriminate)).
  rewrite HE. reflexivity.
Qed.

(* parser side: the token stream ends with a scanner error before any node *)
Lemma parse_scan_error_plain : forall keep sp1 sp3 site mk,
  let r := parse_tokens [(sp1, TStreamStart); (sp3, TDocumentStart)] (SError site mk) keep in
  (node_tags (fst r), snd r) = ([], PScanErr site mk).
Proof. reflexivity. Qed.
Lemma parse_scan_error_dir : forall keep sp1 sp2 sp3 h p site mk, h <> [] ->
  let r := parse_tokens [(sp1, TStreamStart); (sp2, TTagDirective h p); (sp3, TDocumentStart)] (SError site mk) keep in
  (node_tags (fst r), snd r) = ([], PScanErr site mk).
Proof. intros keep sp1 sp2 sp3 h p site mk Hh. destruct h; [contradiction|]. reflexivity. Qed.
Lemma parse_scan_error_start : forall keep sp1 site mk,
  let r := parse_tokens [(sp1, TStreamStart)] (SError site mk) keep in
  (node_tags (fst r), snd r) = ([], PScanErr site mk).
Proof. reflexivity. Qed.

(* the mark after the %TAG line, and where the tag of the document line then begins *)
Definition n_dir (bl1 dh bl2 ptext : list N) : N := N.of_nat (4 + length bl1 + length dh + length bl2 + length ptext).
Definition mk_doc (bl1 dh bl2 ptext : list N) : marker := nlm (adv (n_dir bl1 dh bl2 ptext) m1).

Lemma mk_tag_dir : forall bl1 dh bl2 ptext, mk_tag (mk_doc bl1 dh bl2 ptext) = tag_mark (dir_line bl1 dh bl2 ptext).
Proof.
  intros. unfold mk_tag, mk_doc, tag_mark, n_dir, nlm, adv, m1. cbn [m_index m_line m_col].
  rewrite dir_line_length. unfold dir_line, s_tag_line. cbn [app]. f_equal; lia.
Qed.

(* (i) `--- <bad tag> x` *)
Theorem tags_of_plain_doc_reject : forall keep ttext,
  bad_tag_spelling ttext ->
  exists site, 50 <= site <= 53 /\ tags_of_run keep (doc_line ttext) = ([], PScanErr site (tag_mark [])).
Proof.
  intros keep ttext HB.
  assert (exists t', ttext = 33 :: t') as [t' ->] by (inversion HB; eexists; reflexivity).
  pose proof (doc_line_length (33 :: t')) as HLd. cbn [length] in HLd.
  destruct (scan_all_doc_line_reject (2 * length (doc_line (33 :: t')) + 10)
              (4 * (2 * length (doc_line (33 :: t')) + 10) + 19) t' 1 0 1 true true 1 [(span_empty m1, TStreamStart)]
              HB ltac:(lia) ltac:(lia) ltac:(lia)) as [site [Hs E]].
  exists site. split; [exact Hs|]. unfold tags_of_run, run_str_keep, scan_str.
  replace (4 * (2 * length (doc_line (33%N :: t')) + 10) + 20)%nat
    with (S (4 * (2 * length (doc_line (33%N :: t')) + 10) + 19)) by lia.
  cbn [scan_all]. rewrite next_token_init by lia. fold m1 in E. unfold token in *. rewrite E.
  cbn [rev app]. apply parse_scan_error_plain.
Qed.

(* (ii) a good %TAG line, then `--- <bad tag> x` *)
Theorem tags_of_dir_doc_reject : forall keep bl1 dh bl2 ptext p ttext,
  dir_line_ok bl1 dh bl2 ptext p -> bad_tag_spelling ttext ->
  exists site, 50 <= site <= 53 /\
    tags_of_run keep (dir_line bl1 dh bl2 ptext ++ doc_line ttext)
    = ([], PScanErr site (tag_mark (dir_line bl1 dh bl2 ptext))).
Proof.
  intros keep bl1 dh bl2 ptext p ttext [[Hn1 HB1] HH [Hn2 HB2] [HP HDp]] HB.
  assert (exists t', ttext = 33 :: t') as [t' ->] by (inversion HB; eexists; reflexivity).
  pose proof (doc_line_length (33 :: t')) as HLd. cbn [length] in HLd. pose proof (dir_line_length bl1 dh bl2 ptext) as HLl.
  set (F := (2 * length (dir_line bl1 dh bl2 ptext ++ doc_line (33%N :: t')) + 10)%nat).
  assert (HF : (length (dir_line bl1 dh bl2 ptext) + length (doc_line (33%N :: t')) < F)%nat)
    by (unfold F; rewrite app_length; lia).
  unfold tags_of_run, run_str_keep, scan_str. fold F.
  replace (4 * F + 20)%nat with (S (S (4 * F + 18))) by lia.
  cbn [scan_all]. rewrite next_token_init by lia.
  replace (dir_line bl1 dh bl2 ptext ++ doc_line (33 :: t'))
    with (s_tag_line ++ bl1 ++ dh ++ bl2 ++ ptext ++ 10 :: doc_line (33 :: t'))
    by (unfold dir_line; rewrite <- !app_assoc; reflexivity).
  destruct (fetch_tag_directive F bl1 dh bl2 ptext p (doc_line (33 :: t')) 1 0 1 true true 1
              Hn1 HB1 HH Hn2 HB2 HDp HP ltac:(lia)) as [lk1 [_ E1]].
  cbv zeta in E1. fold m1 in E1.
  rewrite (next_token_top F _ _ _ _ _ _ _ _ _ _ _ _ ltac:(lia) E1 ltac:(discriminate)).
  assert (HX : exists site, 50 <= site <= 53 /\
            scan_all str_ops F (4 * F + 18)
              (top (doc_line (33 :: t')) lk1 (mk_doc bl1 dh bl2 ptext) true [] false (1 + 1) false)
              [(mkspan m1 (adv (n_dir bl1 dh bl2 ptext) m1), TTagDirective dh p); (span_empty m1, TStreamStart)]
            = (rev [(mkspan m1 (adv (n_dir bl1 dh bl2 ptext) m1), TTagDirective dh p); (span_empty m1, TStreamStart)]
               ++ [(spn (mk_doc bl1 dh bl2 ptext) (adv 3 (mk_doc bl1 dh bl2 ptext)), TDocumentStart)],
               SError site (mk_tag (mk_doc bl1 dh bl2 ptext)))).
  { exact (scan_all_doc_line_reject F (4 * F + 18) t' lk1 _ _ true false (1 + 1)
             [(mkspan m1 (adv (n_dir bl1 dh bl2 ptext) m1), TTagDirective dh p); (span_empty m1, TStreamStart)]
             HB ltac:(lia) ltac:(lia) ltac:(lia)). }
  destruct HX as [site [Hs E]].
  exists site. split; [exact Hs|]. unfold mk_doc, n_dir in E. unfold token in *. rewrite E. fold (n_dir bl1 dh bl2 ptext). fold (mk_doc bl1 dh bl2 ptext).
  cbn [rev app]. rewrite <- mk_tag_dir.
  assert (Hdh : dh <> []) by (inversion HH; discriminate).
  apply (parse_scan_error_dir keep _ _ _ dh p site _ Hdh).
Qed.

(* (iii) a %TAG line whose prefix has no decoding: whatever follows the line *)
Theorem tags_of_bad_directive : forall keep bl1 dh bl2 ptext rest,
  bl1 <> [] -> Forall (fun c => is_blank c = true) bl1 -> dir_handle dh ->
  bl2 <> [] -> Forall (fun c => is_blank c = true) bl2 ->
  undecodable ptext -> prefix_text ptext -> is_blank_or_breakz (hd 0 rest) = true ->
  exists site, 50 <= site <= 53 /\
    tags_of_run keep (s_tag_line ++ bl1 ++ dh ++ bl2 ++ ptext ++ rest) = ([], PScanErr site m1).
Proof.
  intros keep bl1 dh bl2 ptext rest Hn1 HB1 HH Hn2 HB2 HU HP HR.
  set (text := s_tag_line ++ bl1 ++ dh ++ bl2 ++ ptext ++ rest).
  set (F := (2 * length text + 10)%nat).
  assert (HF : (4 + length bl1 + length dh + length bl2 + length ptext < F)%nat).
  { unfold F, text, s_tag_line. repeat (rewrite app_length || cbn [length]). lia. }
  assert (HE : scan_error (next_token str_ops F (top text 1 m1 true [] true 1 false)) m1).
  { apply next_token_error; [lia|].
    unfold text, s_tag_line. cbn [app].
    erewrite fetch_top_directive; [|apply skip_to_next_token_none; [lia|discriminate..]|reflexivity].
    unfold fetch_directive. eapply bind_eq_error; [apply unroll_top; reflexivity|].
    eapply bind_eq_error; [apply remove_sk_top|]. eapply bind_eq_error; [apply disallow_top|].
    apply bind_error.
    exact (scan_directive_reject F bl1 dh bl2 ptext rest _ m1 true (base [] false 1 false)
             Hn1 HB1 HH Hn2 HB2 HU HP HR HF). }
  destruct HE as [site [HE Hs]]. exists site. split; [exact Hs|].
  unfold tags_of_run, run_str_keep, scan_str. fold text. fold F.
  replace (4 * F + 20)%nat with (S (S (4 * F + 18))) by lia.
  cbn [scan_all]. rewrite next_token_init by lia. rewrite HE. cbn [rev]. apply parse_scan_error_start.
Qed.

(* 5. In the words of the specification *)
Lemma bad_tag_text_spelling : forall ttext, bad_tag_text ttext -> bad_tag_spelling ttext.
Proof.
  intros ttext H. inversion H as [uri HU HD|name suffix HN HT HD|suffix HT HD]; subst.
  - apply bt_verbatim; [apply (all_Forall _ _ _ uri_char_is_ns_uri_char HU)|exact HD].
  - apply bt_named; [apply (all_Forall _ _ _ alpha_is_handle_name_char HN)
                    |apply (all_Forall _ _ _ tag_char_is_ns_tag_char HT)|exact HD].
  - apply bt_local; [apply (all_Forall _ _ _ tag_char_is_ns_tag_char HT)|exact HD].
Qed.

Definition scanner_rejects (r : list (option (list N * list N)) * pend) (m : marker) : Prop :=
  exists site, 50 <= site <= 53 /\ r = ([], PScanErr site m).

Theorem scan_tag_text_rejects : forall F ttext rest lk m w s,
  bad_tag_text ttext -> (length ttext < F)%nat -> tag_end (sc_flow_level s) (hd 0 rest) = true ->
  exists site, scan_tag str_ops F (st (ttext ++ rest) lk m w s) = SBase.Err site m /\ 50 <= site <= 53.
Proof. intros F ttext rest lk m w s HB HL HE. apply scan_tag_reject; [apply bad_tag_text_spelling; exact HB|exact HL|exact HE]. Qed.

Theorem text_plain_document_rejects : forall keep ttext,
  bad_tag_text ttext -> scanner_rejects (tags_of_run keep (doc_line ttext)) (tag_mark []).
Proof. intros keep ttext HB. apply tags_of_plain_doc_reject. apply bad_tag_text_spelling. exact HB. Qed.

Theorem text_directive_document_rejects : forall keep line dh p ttext,
  tag_directive_text line dh p -> bad_tag_text ttext ->
  scanner_rejects (tags_of_run keep (line ++ doc_line ttext)) (tag_mark line).
Proof.
  intros keep line dh p ttext HD HB.
  destruct (tag_directive_text_ok _ _ _ HD) as [bl1 [bl2 [ptext [-> HOK]]]].
  apply (tags_of_dir_doc_reject keep bl1 dh bl2 ptext p ttext HOK). apply bad_tag_text_spelling. exact HB.
Qed.

Theorem text_bad_directive_rejects : forall keep text,
  bad_tag_directive_text text -> scanner_rejects (tags_of_run keep text) m1.
Proof.
  intros keep text H. inversion H as [ws1 handle ws2 prefix rest Hn1 HW1 Hn2 HW2 HH HP0 HPU HD HR]; subst.
  apply tags_of_bad_directive.
  - apply nonempty_ne; exact Hn1.
  - apply (all_Forall _ _ _ blank_is_s_white HW1).
  - destruct HH as [->|[name [-> HN]]]; [constructor|].
    apply dh_named. apply (all_Forall _ _ _ alpha_is_handle_name_char HN).
  - apply nonempty_ne; exact Hn2.
  - apply (all_Forall _ _ _ blank_is_s_white HW2).
  - exact HD.
  - destruct prefix as [|c0 pr]; [discriminate|]. split; [discriminate|]. split.
    + cbn [hd]. apply orb_true_iff in HP0. destruct HP0 as [HP0|HP0].
      * left. apply N.eqb_eq in HP0. exact HP0.
      * right. rewrite tag_char_is_ns_tag_char. exact HP0.
    + apply (all_Forall _ _ _ uri_char_is_ns_uri_char HPU).
  - destruct rest as [|c r]; [reflexivity|]. cbn [hd].
    unfold is_blank_or_breakz, is_breakz, is_break. rewrite blank_is_s_white.
    apply orb_true_iff in HR. destruct HR as [HR|HR].
    + apply orb_true_iff in HR. destruct HR as [HR|HR]; rewrite HR; [reflexivity|].
      rewrite orb_true_r. reflexivity.
    + rewrite HR. rewrite !orb_true_r. reflexivity.
Qed.
