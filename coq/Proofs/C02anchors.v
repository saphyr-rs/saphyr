(* C02, anchor part: anchor ids are handed out as 1, 2, 3, ... (so positive and pairwise distinct over the whole
   stream, a fortiori within a document), and every alias carries an id handed out earlier. *)
From Coq Require Import List NArith Bool Lia.
Import ListNotations.
Require Import Parser Grammar ParserView StrEqb.
Open Scope N_scope.

Definition AInv (p : parser) (n : N) : Prop :=
  p_anchor_id p = n + 1 /\ forall name id, assoc name (p_anchors p) = Some id -> 1 <= id <= n.

Definition apost (n : N) (r : res ((event * span) * parser)) : Prop :=
  match r with
  | Ok ((e, _), p') => exists n', aev n e = Some n' /\ AInv p' n'
  | _ => True
  end.

Lemma register_ainv p name n : AInv p n ->
  fst (register_anchor p name) = n + 1 /\ AInv (snd (register_anchor p name)) (n + 1).
Proof.
  intros [A B]. unfold register_anchor. cbn [fst snd]. split; [exact A|].
  split; [cbn; lia|]. intros nm id H. cbn in H. rewrite assoc_set_spec in H.
  destruct (str_eqb nm name); [inversion H; lia|]. apply B in H. lia.
Qed.

(* Only [set_anchors] touches what [AInv] reads, so the invariant passes through every other setter by conversion. *)

Lemma peek_ainv p n : AInv p n -> match peek p with Ok (_, q) => AInv q n | _ => True end.
Proof.
  unfold peek. destruct (p_token p); [exact (fun H => H)|].
  destruct (p_toks p); [exact (fun _ => I)|exact (fun H => H)].
Qed.

Lemma pop_ainv p n : AInv p n -> match pop_state p with Ok q => AInv q n | _ => True end.
Proof. unfold pop_state. destruct (p_states p); [exact (fun _ => I)|exact (fun H => H)]. Qed.

(* destruct the next [peek], keeping the invariant for the new parser *)
Ltac apeek :=
  match goal with
  | HQ : AInv _ ?n |- context [peek ?q] =>
      let W := fresh "HQ" in
      pose proof (peek_ainv q n HQ) as W;
      let sp := fresh "sp" in let tk := fresh "tk" in let q' := fresh "q" in
      destruct (peek q) as [[[sp tk] q']| |]; cbn [fst snd]; [|exact I|exact I]
  end.

Lemma apost_ok n n' e sp q : aev n e = Some n' -> AInv q n' -> apost n (Ok ((e, sp), q)).
Proof. intros He HQ. exists n'. split; assumption. Qed.

Lemma apost_pop n n' e sp q (k : parser -> parser) :
  aev n e = Some n' -> AInv q n' -> (forall x, AInv x n' -> AInv (k x) n') ->
  apost n (do x <- pop_state q; Ok ((e, sp), k x)).
Proof.
  intros He HQ Hk. apply pop_ainv in HQ. destruct (pop_state q); [|exact I|exact I].
  apply (apost_ok n n'); [exact He|apply Hk; exact HQ].
Qed.

(* node_props: returns either no anchor (table unchanged) or the fresh id n+1 *)
Lemma node_props_ainv p t n : AInv p n ->
  match node_props p t with
  | Ok (aid, _, q) => (aid = 0 /\ AInv q n) \/ (aid = n + 1 /\ AInv q (n + 1))
  | _ => True
  end.
Proof.
  intros HA. rewrite node_props_if. cbv zeta.
  destruct (as_anchor (snd t)) as [name|]; [|destruct (as_tag (snd t)) as [[h s]|]; [|left; split; [reflexivity|exact HA]]].
  - destruct (register_ainv (skip p) name n HA) as [Hid HA'].
    destruct (register_anchor (skip p) name) as [id q0]. cbn [fst snd] in *. subst id.
    apeek. destruct (as_tag tk) as [[h s]|]; [destruct (resolve_tag _ _ h s); try exact I|];
      right; (split; [reflexivity|assumption]).
  - destruct (resolve_tag _ _ h s); try exact I.
    apeek. destruct (as_anchor tk) as [name|]; [|left; split; [reflexivity|assumption]].
    destruct (register_ainv (skip q) name n HQ) as [Hid HA'].
    destruct (register_anchor (skip q) name) as [id q0]. cbn [fst snd] in *. subst id.
    right. split; [reflexivity|exact HA'].
Qed.

Lemma aev_fresh n aid : (aid = 0 \/ aid = n + 1) ->
  forall mk, (forall a, mk a = EScalar [] Plain a None \/ True) -> True.
Proof. trivial. Qed.

Lemma fresh_ok n aid n' : (aid = 0 /\ n' = n) \/ (aid = n + 1 /\ n' = n + 1) ->
  (if aid =? 0 then Some n else if aid =? n + 1 then Some (n + 1) else None) = Some n'.
Proof.
  intros [[-> ->]|[-> ->]]; [reflexivity|].
  destruct (N.eqb_spec (n + 1) 0); [lia|]. rewrite N.eqb_refl. reflexivity.
Qed.

Section Node.
Variables (n n' aid : N) (tg : option tag).
Hypothesis Hf : (aid = 0 /\ n' = n) \/ (aid = n + 1 /\ n' = n + 1).

Lemma empty_or_err_apost p sp : AInv p n' -> apost n (empty_or_err p aid tg sp).
Proof.
  intros HA. unfold empty_or_err. destruct (has_props aid tg); [|exact I].
  apply (apost_pop n n'); [exact (fresh_ok _ _ _ Hf) | exact HA | exact (fun x H => H)].
Qed.

Lemma node_content_apost p b i : AInv p n' -> apost n (node_content p aid tg b i).
Proof.
  intros HA. rewrite node_content_if. apeek. pose proof (fresh_ok _ _ _ Hf) as Hev.
  destruct (as_scalar tk) as [[st v]|].
  { apply (apost_pop n n'); [exact Hev | exact HQ | exact (fun x H => H)]. }
  destruct (tis TBlockEntry tk).
  { destruct i; [apply (apost_ok n n'); [exact Hev|exact HQ] | apply empty_or_err_apost; exact HQ]. }
  destruct (tis TFlowSequenceStart tk); [apply (apost_ok n n'); [exact Hev|exact HQ]|].
  destruct (tis TFlowMappingStart tk); [apply (apost_ok n n'); [exact Hev|exact HQ]|].
  destruct (tis TBlockSequenceStart tk && b); [apply (apost_ok n n'); [exact Hev|exact HQ]|].
  destruct (tis TBlockMappingStart tk && b); [apply (apost_ok n n'); [exact Hev|exact HQ]|].
  apply empty_or_err_apost; exact HQ.
Qed.
End Node.

Lemma parse_node_apost p b i n : AInv p n -> apost n (parse_node p b i).
Proof.
  intros HA. rewrite parse_node_if. apeek.
  destruct (as_alias tk) as [name|].
  - apply pop_ainv in HQ. destruct (pop_state q) as [x| |]; [|exact I|exact I].
    cbv zeta. change (p_anchors (skip x)) with (p_anchors x).
    destruct (assoc name (p_anchors x)) as [id|] eqn:A; [|exact I].
    apply (apost_ok n n); [|exact HQ]. cbn [aev]. apply (proj2 HQ) in A.
    replace ((1 <=? id) && (id <=? n)) with true; [reflexivity|].
    symmetry. apply andb_true_iff. split; apply N.leb_le; lia.
  - pose proof (node_props_ainv q (sp, tk) n HQ) as HP.
    destruct (node_props q (sp, tk)) as [[[aid tg] q2]| |]; [|exact I|exact I].
    destruct HP as [[-> H2]|[-> H2]].
    + apply (node_content_apost n n); auto.
    + apply (node_content_apost n (n + 1)); auto.
Qed.

Lemma node_or_empty_apost l p st b i n : AInv p n -> apost n (node_or_empty l p st b i).
Proof.
  intros HA. unfold node_or_empty. apeek.
  destruct (tin l tk); [apply (apost_ok n n); [reflexivity|exact HQ] | apply parse_node_apost; exact HQ].
Qed.

(* every state function *)
Lemma process_directives_ainv fuel n : forall p vs tags, AInv p n ->
  match process_directives fuel p vs tags with Ok q => AInv q n | _ => True end.
Proof.
  induction fuel as [|fuel IH]; intros p vs tags HA; cbn [process_directives]; [exact I|].
  apeek. destruct tk; try exact HQ.
  - destruct vs; [exact I|]. apply IH. exact HQ.
  - destruct (negb (is_empty_str h) && has_key h tags); [exact I|]. apply IH. exact HQ.
Qed.

Lemma skip_document_ends_ainv fuel n : forall p, AInv p n ->
  match skip_document_ends fuel p with Ok q => AInv q n | _ => True end.
Proof.
  induction fuel as [|fuel IH]; intros p HA; cbn [skip_document_ends]; [exact I|].
  apeek. destruct tk; try exact HQ. apply IH. exact HQ.
Qed.

Lemma aev_empty n : aev n empty_scalar = Some n.
Proof. reflexivity. Qed.
Lemma aev_map0 n : aev n (EMappingStart 0 None) = Some n.
Proof. reflexivity. Qed.

Section States.
Variable n : N.

(* the leaves whose event carries no anchor id *)
Ltac plain := apply (apost_ok n n); [reflexivity|assumption].
Ltac pop := apply (apost_pop n n); [reflexivity | assumption | exact (fun x H => H)].
Ltac node := first [apply node_or_empty_apost | apply parse_node_apost]; assumption.

Lemma a_block_mapping_key p first : AInv p n -> apost n (block_mapping_key p first).
Proof.
  intros HA. rewrite block_mapping_key_if. destruct first; [apeek|]; apeek.
  all: destruct (tis TKey _); [node|].
  all: destruct (tis TValue _); [plain|].
  all: destruct (tis TBlockEnd _); [pop|exact I].
Qed.

Lemma a_block_mapping_value p : AInv p n -> apost n (block_mapping_value p).
Proof.
  intros HA. rewrite block_mapping_value_if. apeek.
  destruct (tis TValue tk); [node|plain].
Qed.

Lemma a_flow_mapping_key p first : AInv p n -> apost n (flow_mapping_key p first).
Proof.
  intros HA. rewrite flow_mapping_key_if. destruct first; [apeek|]; apeek.
  all: destruct (tis TFlowMappingEnd _); [pop|].
  2: apeek; destruct (tis TFlowEntry _); [|exact I].
  all: apeek.
  all: destruct (tis TKey _); [node|].
  all: destruct (tis TValue _); [plain|].
  all: destruct (tis TFlowMappingEnd _); [pop|node].
Qed.

Lemma a_flow_mapping_value p empty : AInv p n -> apost n (flow_mapping_value p empty).
Proof.
  intros HA. rewrite flow_mapping_value_if. destruct empty; apeek; [plain|].
  destruct (tis TValue tk); [|plain]. apeek.
  destruct (tin _ tk0); [plain|node].
Qed.

Lemma a_flow_sequence_entry p first : AInv p n -> apost n (flow_sequence_entry p first).
Proof.
  intros HA. rewrite flow_sequence_entry_if. destruct first; [apeek|]; apeek.
  all: destruct (tis TFlowSequenceEnd _); [pop|].
  2: destruct (tis TFlowEntry _); [|exact I].
  all: apeek.
  all: destruct (tis TFlowSequenceEnd _); [pop|].
  all: destruct (tis TKey _); [plain|node].
Qed.

Lemma a_block_sequence_entry p first : AInv p n -> apost n (block_sequence_entry p first).
Proof.
  intros HA. rewrite block_sequence_entry_if. destruct first; [apeek|]; apeek.
  all: destruct (tis TBlockEnd _); [pop|].
  all: destruct (tis TBlockEntry _); [node|exact I].
Qed.

Lemma a_indentless_sequence_entry p : AInv p n -> apost n (indentless_sequence_entry p).
Proof.
  intros HA. rewrite indentless_sequence_entry_if. apeek.
  destruct (tis TBlockEntry tk); [node|pop].
Qed.

Lemma a_fsem_key p : AInv p n -> apost n (flow_sequence_entry_mapping_key p).
Proof. intros HA. rewrite flow_sequence_entry_mapping_key_if. node. Qed.

Lemma a_fsem_value p : AInv p n -> apost n (flow_sequence_entry_mapping_value p).
Proof.
  intros HA. rewrite flow_sequence_entry_mapping_value_if. apeek.
  destruct (tis TValue tk); [|plain]. apeek. cbv zeta.
  destruct (tin _ tk0); [plain|node].
Qed.

Lemma a_fsem_end p m : AInv p n -> apost n (flow_sequence_entry_mapping_end p m).
Proof. intros HA. unfold flow_sequence_entry_mapping_end. plain. Qed.

Lemma a_stream_start p : AInv p n -> apost n (stream_start p).
Proof. intros HA. unfold stream_start. apeek. destruct tk; try exact I. plain. Qed.

Lemma a_document_content p : AInv p n -> apost n (document_content p).
Proof.
  intros HA. rewrite document_content_if. apeek.
  destruct (tin _ tk); [pop|node].
Qed.

Lemma a_explicit_document_start p : AInv p n -> apost n (explicit_document_start p).
Proof.
  intros HA. unfold explicit_document_start.
  apply (process_directives_ainv (S (S (length (p_toks p)))) n p false []) in HA.
  destruct (process_directives _ p false []) as [q| |]; try exact I.
  apeek. destruct tk; try exact I. plain.
Qed.

Lemma a_document_start p implicit : AInv p n -> apost n (document_start p implicit).
Proof.
  intros HA. rewrite document_start_if.
  apply (skip_document_ends_ainv (S (S (length (p_toks p)))) n p) in HA.
  destruct (skip_document_ends _ p) as [q| |]; try exact I.
  apeek. destruct (tis TStreamEnd tk); [plain|].
  destruct (negb implicit || tin _ tk); [apply a_explicit_document_start; exact HQ|].
  apply (process_directives_ainv (S (S (length (p_toks q0)))) n q0 false []) in HQ.
  destruct (process_directives _ q0 false []) as [q1| |]; try exact I.
  plain.
Qed.

Lemma a_document_end p : AInv p n -> apost n (document_end p).
Proof.
  intros HA. rewrite document_end_if. apeek. cbv zeta.
  (* after the anchors are cleared the invariant holds for the same counter *)
  assert (Hclr : forall q0, AInv q0 n ->
            AInv (set_anchors (if p_keep_tags q0 then q0 else set_tags q0 []) []
                              (p_anchor_id (if p_keep_tags q0 then q0 else set_tags q0 []))) n).
  { intros q0 [A B]. split; [destruct (p_keep_tags q0); exact A|]. intros nm id H. discriminate H. }
  destruct (tis TDocumentEnd tk); cbn beta iota.
  - apply (apost_ok n n); [reflexivity|]. exact (Hclr (skip q) HQ).
  - apply Hclr in HQ. apeek. destruct (tin _ tk0); [exact I|plain].
Qed.

Theorem state_machine_apost p : AInv p n -> p_state p <> SEnd -> apost n (state_machine p).
Proof.
  intros HA HE. unfold state_machine. destruct (p_state p).
  - apply a_stream_start; assumption.
  - apply a_document_start; assumption.
  - apply a_document_start; assumption.
  - apply a_document_content; assumption.
  - apply a_document_end; assumption.
  - apply parse_node_apost; assumption.
  - apply a_block_sequence_entry; assumption.
  - apply a_block_sequence_entry; assumption.
  - apply a_indentless_sequence_entry; assumption.
  - apply a_block_mapping_key; assumption.
  - apply a_block_mapping_key; assumption.
  - apply a_block_mapping_value; assumption.
  - apply a_flow_sequence_entry; assumption.
  - apply a_flow_sequence_entry; assumption.
  - apply a_fsem_key; assumption.
  - apply a_fsem_value; assumption.
  - apply a_fsem_end; assumption.
  - apply a_flow_mapping_key; assumption.
  - apply a_flow_mapping_key; assumption.
  - apply a_flow_mapping_value; assumption.
  - apply a_flow_mapping_value; assumption.
  - congruence.
Qed.
End States.
