(* C02 at text level: the statements of C02_run / C02_anchor_ids for the whole model pipeline on EVERY text, over the string
   input and over the buffered input of every capacity >= 8 (the latter by C10's run_buf cap x = run_str x). *)
From Coq Require Import List NArith Bool Lia.
Import ListNotations.
Require Import Parser SBase SBuf SFetch Pipe Grammar C02base C02tail C02run C02anchors C02anchorsRun.
Require Import ScanFuelBufAll.
Require DocRun.

Theorem text_run_wellformed (x : list N) :
  (exists g, grun GInit (evs_of (fst (run_str x))) = Some g /\ (snd (run_str x) = PDone -> g = GEnd))
  /\ (exists n, arun 0 (evs_of (fst (run_str x))) = Some n).
Proof.
  rewrite DocRun.run_str_parse. split.
  - exact (proj1 (parser_run_wellformed _ false _ _)).
  - exact (parser_run_anchors _ false _ _).
Qed.

Theorem text_run_wellformed_buffered (cap : nat) (x : list N) : (8 <= cap)%nat ->
  (exists g, grun GInit (evs_of (fst (run_buf cap x))) = Some g /\ (snd (run_buf cap x) = PDone -> g = GEnd))
  /\ (exists n, arun 0 (evs_of (fst (run_buf cap x))) = Some n).
Proof. intros H. rewrite (pipeline_backends_equal cap x H). exact (text_run_wellformed x). Qed.
