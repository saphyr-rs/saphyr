(* The one-sided calculus and the movement relation of ScanPairBlock.v, read over the definitions of ScanRel.v. *)
From Coq Require Import List NArith ZArith Bool Arith Lia.
Import ListNotations.
Require Import Parser SBase SPrim ScanRel.
Require ScanPairBlock.
Local Open Scope nat_scope.

(* one-sided partial-correctness calculus (any back-end) *)
Definition wp1 {J A} (m : @M J A) (P : A -> sc J -> Prop) (s : sc J) : Prop :=
  match m s with Ok (a, t) => P a t | Err _ _ => False | _ => True end.

Lemma wp1_oof {J A} (P : A -> sc J -> Prop) s : wp1 (@oof J A) P s.
Proof. exact (ScanPairBlock.wp1_oof P s). Qed.
Lemma wp1_panic {J A} site (P : A -> sc J -> Prop) s : wp1 (@panic J A site) P s.
Proof. exact (ScanPairBlock.wp1_panic site P s). Qed.

(* [Mv g j a g']: g' is g with j characters consumed and the mark advanced by a (same line); the look-ahead
   counter is not part of it (the state relation [SR] does not see it either) *)
Definition Mv (g : st1) (j : nat) (a : N) (g' : st1) : Prop :=
  rem1 g' = skipn j (rem1 g) /\ erase g' = set_mark (adv a (sc_mark g)) (erase g).

Lemma Mv_rn1 g j a g' i : Mv g j a g' -> rn1 g' i = rn1 g (j + i).
Proof. exact (ScanPairBlock.Mv_rn1 g j a g' i). Qed.
