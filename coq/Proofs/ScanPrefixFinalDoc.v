(* C15, text level: the composition theorem of ScanPrefixDoc.v WITHOUT the side condition [no_eof_block].

   [prefix_tokens] relates the tokens the scanner of  A "...\n" B  delivers up to the marker line to the tokens of A
   alone only up to [TS]: an empty block scalar that runs into the end of A has a different span START in the two
   runs.  The conclusion of the composition theorem is about events WITHOUT spans, and these depend on the tokens only
   up to their spans (ScanPrefixFinalParse.v).

     TS_erased                      TS-related tokens have the same erasure
     text_composition_spanfree      ends_with_break A, nonul A, closed_flow A, both texts accepted  =>  composition *)
From Coq Require Import List NArith ZArith Bool Arith Lia.
Import ListNotations.
Require Import Parser SBase SFetch Pipe DocRun DocShift DocIndep.
Require Import ScanShift ScanShiftTop ScanShiftDoc ScanPrefixDoc.
Require ScanPrefix ScanPrefixFinalParse.
Local Open Scope nat_scope.

Module E := ScanPrefixFinalParse.

Lemma TS_erased d t1 t2 : ScanPrefix.TS d t1 t2 -> E.etk t2 = E.etk t1 /\ snd t2 = snd t1.
Proof.
  intros [->|(st & n & a & e & _ & -> & ->)]; split; reflexivity.
Qed.
Lemma TSs_erased d l1 l2 : Forall2 (ScanPrefix.TS d) l1 l2 -> map E.etk l2 = map E.etk l1.
Proof.
  induction 1 as [|a b l1 l2 H _ IH]; [reflexivity|]. cbn [map]. rewrite (proj1 (TS_erased d a b H)), IH. reflexivity.
Qed.

Theorem text_composition_spanfree A B evA evB :
  ends_with_break A -> nonul A -> closed_flow A ->
  run_str A = (evA, PDone) -> run_str B = (evB, PDone) ->
  exists evC, run_str (glue_text A B) = (evC, PDone)
              /\ evs_of evC = removelast (evs_of evA) ++ map (shift_ev (count_anchored (evs_of evA))) (tl (evs_of evB)).
Proof.
  intros HE HN HC HA HB.
  destruct (prefix_tokens A B HE HN (accepted_scan_ended A evA HA) HC)
    as (k & spd & sm & l2 & ED & HF & Hk & MC & HBr & TK & TA & SE & TP & EB).
  destruct (tokens_behind_boundary _ k _ sm ED Hk MC HBr TK TA SE TP) as [ETX _]. rewrite EB in ETX.
  apply (composition_up_to_spans A B evA evB spd HA HB).
  rewrite ETX, <- app_assoc, !map_app. f_equal; [exact (TSs_erased B _ _ HF)|]. cbn [app map]. rewrite map_map. reflexivity.
Qed.

Print Assumptions text_composition_spanfree.
