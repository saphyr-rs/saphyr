(* C09, parser half of the round trip: Parser::load (PipeL.parse_load: the event loop that clears the anchor table after
   every DocumentStart) run on the token list of one explicit document "--- <root>" emits exactly the events the layout
   tree denotes; composed with the scanner hypothesis for the text  "---\n" ++ block text without its last break. *)
From Coq Require Import List NArith ZArith Bool Arith Lia.
Import ListNotations.
Require Import Parser SBase SPrim SDir SScalar SFetch Pipe Resolver Loader PipeL Drivers C02run
               TokenGrammar FlowText BlockText TokenGrammarProofs TokenStreamProofs ScanFlowProofs ScanBlockProofs
               EmitterRoundTripDefs.

(* the state machine is a function: runs are deterministic *)
Lemma steps_split p a b q p1 : steps p (a ++ b) q -> steps p a p1 -> steps p1 b q.
Proof.
  intros Hab Ha. revert b q Hab.
  induction Ha as [p | p e sp p' evs p'' Hs Hst IH]; intros b q Hab.
  - exact Hab.
  - cbn [app] in Hab. inversion Hab as [| p0 e0 sp0 q' evs0 q0 Hs' Hst' ]; subst.
    rewrite Hs in Hs'. injection Hs' as _ Ep. subst q'. apply IH. exact Hst'.
Qed.

(* events other than DocumentStart: parse_load is the plain event loop *)
Definition not_doc_start (e : event) : Prop := match e with EDocumentStart _ => False | _ => True end.

Lemma clear_anchors_nil p : p_anchors p = [] -> clear_anchors p = p.
Proof. destruct p; cbn. intros ->. reflexivity. Qed.

(* one step of Parser::load: the anchor table is cleared after a DocumentStart, which changes nothing if it is empty *)
Lemma step_parse_load p e sp p' : state_machine p = Parser.Ok ((e, sp), p') -> not_doc_start e \/ p_anchors p' = [] ->
  forall f se acc, parse_load (S f) p se acc = parse_load f p' se (e :: acc).
Proof.
  intros Hs Ha f se acc.
  assert (Hne : p_state p <> SEnd).
  { intros E. unfold state_machine in Hs. rewrite E in Hs. discriminate. }
  cbn [parse_load]. rewrite Hs.
  assert (Hc : match e with EDocumentStart _ => clear_anchors p' | _ => p' end = p').
  { destruct e; try reflexivity. destruct Ha as [Ha|Ha]; [contradiction Ha|apply clear_anchors_nil; exact Ha]. }
  rewrite Hc. destruct (p_state p); try reflexivity. contradiction Hne; reflexivity.
Qed.

Lemma steps_parse_load_plain p evs q : steps p evs q -> Forall not_doc_start evs ->
  forall f se acc, parse_load (length evs + f) p se acc = parse_load f q se (rev evs ++ acc).
Proof.
  induction 1 as [p | p e sp p' evs p'' Hs Hst IH]; intros Hall f se acc.
  - reflexivity.
  - inversion Hall as [| e0 l0 He Hl]; subst.
    cbn [length plus rev]. rewrite (step_parse_load _ _ _ _ Hs (or_introl He)), (IH Hl), <- app_assoc. reflexivity.
Qed.

(* the events of a tree contain no DocumentStart *)
Lemma number_not_doc_start tg l : forall e, Forall not_doc_start (number tg e l).
Proof.
  induction l as [|x l IH]; intros e; cbn [number]; constructor.
  - destruct x; exact I.
  - apply IH.
Qed.

Lemma events_of_not_doc_start t : Forall not_doc_start (events_of t).
Proof. apply number_not_doc_start. Qed.

Lemma init_parser_init_p toks keep : init_parser toks keep = init_p toks keep.
Proof. reflexivity. Qed.

(* statement 1 *)
Theorem parse_load_wrap : forall t ee toks se fuel,
  wf_root true t = true -> bound [] env0 (pre_events t) = true ->
  map snd toks = wrap true ee (tokens_of t) ->
  (length (wrap_events true (events_of t)) < fuel)%nat ->
  parse_load fuel (init_parser toks false) se [] = (wrap_events true (events_of t), PDone).
Proof.
  intros t ee toks se fuel Hw Hb Hm Hf.
  destruct (doc_steps t true ee toks false Hw Hb Hm) as (p3 & R & E3).
  (* the first two tokens: StreamStart, DocumentStart *)
  pose proof Hm as Hm0. unfold wrap in Hm0. cbn [flag app] in Hm0.
  apply map_snd_cons in Hm0 as (sp0 & t1 & Et & Hm1).
  apply map_snd_cons in Hm1 as (sd & u & Et1 & _). subst t1.
  destruct (doc_open true sp0 [(sd, TDocumentStart)] u false eq_refl (or_introl eq_refl)) as (p1 & R1 & V1).
  cbn [app] in R1. subst toks.
  assert (Ha1 : p_anchors p1 = []).
  { unfold view in V1. inversion V1. reflexivity. }
  unfold wrap_events in R.
  change (EStreamStart :: EDocumentStart true :: events_of t ++ [EDocumentEnd; EStreamEnd])
    with ([EStreamStart; EDocumentStart true] ++ events_of t ++ [EDocumentEnd; EStreamEnd]) in R.
  pose proof (steps_split _ _ _ _ _ R R1) as R2.
  assert (Hrest : Forall not_doc_start (events_of t ++ [EDocumentEnd; EStreamEnd])).
  { apply Forall_app. split; [apply events_of_not_doc_start|]. repeat constructor. }
  (* the two opening steps *)
  inversion R1 as [| pa ea spa pb evsa pc Hsa Hsta]; subst.
  inversion Hsta as [| pa' ea' spb pb' evsb pc' Hsb Hstb]; subst.
  inversion Hstb; subst.
  assert (Hab : p_anchors pb = []).
  { (* the anchor table after StreamStart: computed *)
    cbn in Hsa. injection Hsa as _ <-. reflexivity. }
  set (rest := events_of t ++ [EDocumentEnd; EStreamEnd]) in *.
  assert (Hlen : (length (wrap_events true (events_of t)) = 2 + length rest)%nat) by reflexivity.
  rewrite Hlen in Hf.
  replace fuel with (S (S (length rest + (fuel - 2 - length rest))))%nat by lia.
  rewrite init_parser_init_p.
  rewrite (step_parse_load _ _ _ _ Hsa (or_intror Hab)).
  rewrite (step_parse_load _ _ _ _ Hsb (or_intror Ha1)).
  rewrite (steps_parse_load_plain _ _ _ R2 Hrest).
  destruct (fuel - 2 - length rest)%nat as [|f] eqn:Ef; [lia|].
  cbn [parse_load]. rewrite E3. f_equal.
  rewrite rev_app_distr, rev_involutive. cbn [rev app]. unfold wrap_events. reflexivity.
Qed.

(* statement 2 *)
Lemma run_load_parse s :
  run_load s = (let F := (2 * length s + 10)%nat in
                let '(toks, se) := scan_str s in
                match parse_load (4 * F + 20) (init_parser toks false) se [] with
                | (evs, PDone) => match load_events evs l0 with LOk ld => LDocs (rev (l_docs ld)) | LPanic n => LBad n end
                | (_, PPanic n) => LBad n
                | (_, PFuel) => LBad 999
                | _ => LErr
                end).
Proof. reflexivity. Qed.

Lemma removelast_length {A} (l : list A) : length (removelast l) = pred (length l).
Proof.
  induction l as [|x l IH]; [reflexivity|]. cbn [removelast]. destruct l as [|y l]; [reflexivity|].
  cbn [length] in *. rewrite IH. reflexivity.
Qed.

Theorem run_load_block_doc : forall n, bwf_root n = true ->
  (exists toks, scan_str (doc_header ++ blast n) = (toks, SEnded) /\ map snd toks = wrap true false (tokens_of (blt n))) ->
  run_load (doc_header ++ blast n) =
    match load_events (wrap_events true (events_of (blt n))) l0 with LOk ld => LDocs (rev (l_docs ld)) | LPanic k => LBad k end.
Proof.
  intros n Hroot (toks & Es & Hm).
  rewrite run_load_parse. cbv zeta. rewrite Es.
  unfold bwf_root in Hroot. apply andb_prop in Hroot as [Hcoll Hwf].
  rewrite (parse_load_wrap (blt n) false toks SEnded _); [reflexivity | | | exact Hm | ].
  - clear Es Hm. unfold wf_root. pose proof (blt_wf n true Hwf) as W. cbn [negb] in W.
    destruct n; try discriminate Hcoll; exact W.
  - apply bound_plain, blt_plain.
  - unfold wrap_events, events_of. cbn [length]. rewrite app_length, number_length. cbn [length].
    pose proof (events_le_text n true 0%nat Hwf) as Hle.
    rewrite app_length. unfold blast, bdoc_text. rewrite removelast_length.
    unfold doc_header. cbn [length]. unfold str in *. lia.
Qed.

Print Assumptions parse_load_wrap.
Print Assumptions run_load_block_doc.
