(* Joint proof "the scanner never panics on a buffered input of any capacity >= 8": the QUOTED (flow) SCALAR family.
   scan_flow_scalar and its helpers (read_hex, resolve_escape, consume_nonws, flow_blanks, the main loop) never
   violate the lookahead contract of the buffered input; that they only consume input / move the mark is
   [ScanFrame.Fr_scan_flow_scalar]. *)
From Coq Require Import List NArith ZArith Bool Arith Lia.
Import ListNotations.
Require Import Parser SBase SPrim SDir SScalar SFetch SBuf ScanLoops ScalarKit ScanWP.
Local Open Scope nat_scope.
Arguments Nat.ltb : simpl never.
Arguments Nat.leb : simpl never.
Arguments Nat.eqb : simpl never.
Arguments Nat.sub : simpl never.

Section Flow.
Variable cap : nat.
Hypothesis cap_ge : 8 <= cap.
Hypothesis H_ws : spec_skip_ws_to_eol cap.
Notation bo := (bops cap).
Notation st := (sc bufin).

(* escapes *)
(* read_hex n i peeks at offsets i .. i+n-1 and does not touch the state *)
Lemma wp_read_hex n : forall i acc start (Q : N -> st -> Prop) s,
  i + n <= bl s -> (forall v, Q v s) -> wp (read_hex bo n i acc start) Q s.
Proof.
  induction n as [|n IH]; intros i acc start Q s Hb HQ; cbn [read_hex].
  - apply wp_ret, HQ.
  - apply wp_bind. apply (wp_peekn cap cap_ge); [lia|]. intros c.
    dif; [apply IH; [lia|exact HQ] | apply wp_fail].
Qed.

Lemma wp_resolve_escape start (Q : chr -> st -> Prop) s :
  2 <= bl s -> (forall r s', Q r s') -> wp (resolve_escape bo start) Q s.
Proof.
  intros Hb HQ. unfold resolve_escape. apply wp_bind. apply (wp_peekn cap cap_ge); [lia|]. intros e.
  destruct (assocc e escape_table) as [r|].
  - apply wp_bind. apply (wp_skip_n_non_blank cap cap_ge); [lia|]. intros s1 _ _. apply wp_ret, HQ.
  - cbv zeta. pose proof (code_length_le8 e) as Hn. dif; [apply wp_fail|].
    apply wp_bind. apply (wp_skip_n_non_blank cap cap_ge); [lia|]. intros s1 _ _.
    apply wp_bind. apply (wp_look cap cap_ge); [lia|]. intros s2 _ B2 _ _.
    apply wp_bind. apply wp_read_hex; [lia|]. intros v.
    dif; [|apply wp_fail].
    apply wp_bind. apply (wp_skip_n_non_blank cap cap_ge); [lia|]. intros s3 _ _. apply wp_ret, HQ.
Qed.

(* consume_flow_scalar_non_whitespace_chars *)
Lemma wp_consume_nonws (Q : list chr * bool -> st -> Prop) : (forall r s', Q r s') ->
  forall fuel single acc start s, wp (consume_nonws bo fuel single acc start) Q s.
Proof.
  intros HQ. induction fuel as [|fuel IH]; intros single acc start s; cbn [consume_nonws]; [apply wp_oof|].
  apply wp_bind. apply (wp_look cap cap_ge); [lia|]. intros s1 _ B1 _ _.
  apply wp_bind. apply (wp_peek cap cap_ge); [lia|]. intros c.
  dif; [apply wp_ret, HQ|].
  apply wp_bind. apply (wp_peekn cap cap_ge); [lia|]. intros nc.
  dif.
  { apply wp_bind. apply (wp_skip_n_non_blank cap cap_ge); [lia|]. intros s2 _ _. apply IH. }
  dif; [apply wp_ret, HQ|].
  dif; [apply wp_ret, HQ|].
  dif.
  { apply wp_bind. apply (wp_look cap cap_ge); [lia|]. intros s2 _ B2 _ _.
    apply wp_bind. apply (wp_skip_non_blank cap cap_ge). intros s3 _ B3.
    apply wp_bind. apply (wp_skip_linebreak cap cap_ge); [lia|]. intros s4 _ _.
    apply wp_ret, HQ. }
  dif.
  { apply wp_bind. apply wp_resolve_escape; [lia|]. intros r s2. apply IH. }
  apply wp_bind. apply (wp_skip_non_blank cap cap_ge). intros s2 _ _. apply IH.
Qed.

(* the blank-consuming loop *)
Lemma wp_col_lt_indent (Q : bool -> st -> Prop) s : (forall b, Q b s) -> wp (@col_lt_indent bufin) Q s.
Proof. intros HQ. unfold col_lt_indent. apply wp_gets, HQ. Qed.

Lemma wp_flow_blanks (Q : bool * bool * N * list chr -> st -> Prop) : (forall r s', Q r s') ->
  forall fuel lbl lb tb ws s, 1 <= bl s -> wp (flow_blanks bo fuel lbl lb tb ws) Q s.
Proof.
  intros HQ. induction fuel as [|fuel IH]; intros lbl lb tb ws s Hb; cbn [flow_blanks]; [apply wp_oof|].
  apply wp_bind. apply (wp_peek_val cap cap_ge); [lia|].
  assert (Hblank : forall ws', wp (skip_blank bo ;;; look bo 1 ;;; flow_blanks bo fuel lbl lb tb ws') Q s).
  { intros ws'. apply wp_bind. apply (wp_skip_blank cap cap_ge). intros s1 _ _.
    apply wp_bind. apply (wp_look cap cap_ge); [lia|]. intros s2 _ B2 _ _. apply IH; lia. }
  destruct (is_blank (bnth s 0)).
  - destruct lbl; [|apply Hblank].
    apply wp_bind. apply wp_col_lt_indent. intros lt.
    dif; [apply wp_bind; apply wp_mark; apply wp_fail|apply Hblank].
  - destruct (is_break (bnth s 0)) eqn:Eb; [|apply wp_ret, HQ].
    apply wp_bind. apply (wp_look cap cap_ge); [lia|]. intros s1 _ B1 _ P1.
    assert (Eb1 : is_break (bnth s1 0) = true) by (rewrite P1; [exact Eb|lia]).
    destruct lbl.
    + apply wp_bind. apply (wp_skip_break cap cap_ge); [lia|exact Eb1|]. intros s2 _ _.
      apply wp_bind. apply (wp_look cap cap_ge); [lia|]. intros s3 _ B3 _ _. apply IH; lia.
    + apply wp_bind. apply (wp_skip_break cap cap_ge); [lia|exact Eb1|]. intros s2 _ _.
      apply wp_bind. apply (wp_look cap cap_ge); [lia|]. intros s3 _ B3 _ _. apply IH; lia.
Qed.

(* the main loop *)
Lemma wp_flow_go F single start (Q : list chr -> st -> Prop) : (forall r s', Q r s') ->
  forall f acc lb tb ws s, wp (flow_go bo F single start f acc lb tb ws) Q s.
Proof.
  intros HQ. induction f as [|f IH]; intros acc lb tb ws s; cbn [flow_go]; [apply wp_oof|].
  apply wp_bind. apply (wp_look cap cap_ge); [lia|]. intros s1 _ B1 _ _.
  apply wp_bind. apply wp_get.
  apply wp_bind.
  apply wp_mono with (Q := fun _ s' => s' = s1).
  { dif; [apply (wp_next_is_document_indicator cap cap_ge); [lia|reflexivity] | apply wp_ret; reflexivity]. }
  intros di s1' ->.
  destruct di; [apply wp_fail|].
  apply wp_bind. apply (wp_next_is cap cap_ge); [lia|]. intros z.
  destruct z; [apply wp_fail|].
  apply wp_bind. apply wp_col_lt_indent. intros lt.
  destruct lt; [apply wp_fail|].
  apply wp_bind. apply wp_consume_nonws. intros [acc' lbl] s2. cbv beta iota.
  apply wp_bind. apply (wp_look_ch cap cap_ge). intros c s3 _ B3 _.
  dif; [apply wp_ret, HQ|].
  apply wp_bind. apply wp_flow_blanks; [|lia]. intros [[[lbl' lb'] tb'] ws'] s4. cbv beta iota.
  destruct lbl'; [|apply IH].
  dif; [apply IH|]. dif; apply IH.
Qed.

(* scan_flow_scalar *)
Theorem safe_scan_flow_scalar : spec_scan_flow_scalar cap.
Proof.
  intros F single s Hb. apply wp_post_keeps; [apply ScanFrame.Fr_scan_flow_scalar|]. rewrite scan_flow_scalar_eq.
  apply wp_bind. apply wp_mark.
  apply wp_bind. apply (wp_skip_non_blank cap cap_ge). intros s1 _ _.
  apply wp_bind. apply wp_flow_go. intros str s2.
  apply wp_bind. apply (wp_skip_non_blank cap cap_ge). intros s3 _ _.
  apply wp_bind. eapply wp_mono; [apply H_ws|]. intros tw s4 [_ B4].
  apply wp_bind. apply (wp_peek cap cap_ge); [lia|]. intros c.
  apply wp_bind. apply wp_get. cbv zeta.
  dif; [|apply wp_fail].
  apply wp_ret. lia.
Qed.
End Flow.

Print Assumptions safe_scan_flow_scalar.
