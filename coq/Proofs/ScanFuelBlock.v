(* Joint proof "the scanner never runs out of fuel" (see SCANFUEL.md) - family: BLOCK SCALARS.
   Main result: [scan_block_scalar_ok : fuel_scan_block_scalar] (under the contract of [skip_ws_to_eol]).

   Loops of this family and why each ends before its fuel does (measure [rl] = remaining characters):
   - content line, buffered loop: an iteration returns, or consumes a character that was peeked and is not a break
     nor NUL;  raw fast path: [raw_read] answers [Some] only when it consumed a character;
   - [skip_spaces_to]: an iteration returns, or consumes a space that was peeked;
   - [skip_first_line_indent]: the [sp] loop consumes a peeked space per iteration, the outer loop a line break;
   - [skip_block_scalar_indent]: the outer loop consumes a line break per iteration.  The [wide] loop is the one that
     can iterate WITHOUT consuming: it repeats while [col <> indent] and the next character is a space (or the buffer
     is empty).  Over the string input the buffer is never empty after [look bufmaxlen]; [skip_spaces_to] stops with
     [col = indent] or in front of a non-space PROVIDED it was entered with [col <= indent] or in front of a
     non-space ([P0]); under that invariant [wide] does exactly one iteration.  [P0] holds at every call: the
     function is entered right after a line break ([col = 0]) or at the end of the input (next character NUL).
   - main loop of [scan_block_scalar]: an iteration returns, or consumes the line break after the content line
     ([skip_break] panics if it is not in front of a break). *)
From Coq Require Import List NArith ZArith Bool Arith Lia.
Import ListNotations.
Require Import Parser SBase SPrim SDir SScalar SFetch ScanLoops ScanFuel ScanFuelPrim.
Local Open Scope nat_scope.

Arguments N.ltb : simpl never.
Arguments N.eqb : simpl never.
Arguments N.leb : simpl never.
Arguments N.add : simpl never.
Arguments N.max : simpl never.

Notation mcol s := (m_col (sc_mark s)).

Ltac kpt := unfold le_post, lt_post, fuel_ok in *; lia.

(* ---------------- the primitives that move the mark, with the column they leave ----------------
   the column is read off the run itself; [fwp_and] joins it to the rule of ScanFuelPrim.v *)
Lemma fwp_skip_blank_col (Q : unit -> fst_ -> Prop) s :
  fnth s 0 <> 0%N -> (forall s', S (rl s') = rl s -> lk s' = lk s -> mcol s' = (mcol s + 1)%N -> Q tt s') ->
  fwp (skip_blank str_ops) Q s.
Proof.
  intros Hnz HQ. apply fwp_mono with (Q := fun _ s' => (S (rl s') = rl s /\ lk s' = lk s) /\ mcol s' = (mcol s + 1)%N).
  - apply fwp_and; [|reflexivity]. apply fwp_skip_blank_real; [exact Hnz|]. intros s' D _ L. exact (conj D L).
  - intros [] s' [[D L] C]. apply HQ; assumption.
Qed.
(* [skip_break] panics unless it is in front of a line break; then it consumes it and the column is 0 *)
Lemma fwp_skip_break_col (Q : unit -> fst_ -> Prop) s :
  (forall s', rl s' < rl s -> lk s' = lk s -> mcol s' = 0%N -> Q tt s') -> fwp (skip_break str_ops) Q s.
Proof.
  intros HQ. apply fwp_mono with (Q := fun _ s' => (rl s' < rl s /\ lk s' = lk s) /\ mcol s' = 0%N).
  - apply fwp_and; [apply fwp_skip_break; intros _ s' D L; exact (conj D L)|].
    unfold skip_break. apply fwp_bind, fwp_peek. apply fwp_bind, fwp_peekn. apply fwp_bind.
    dif; [apply fwp_ret|apply fwp_panic]. apply fwp_bind. dif; reflexivity.
  - intros [] s' [[D L] C]. apply HQ; assumption.
Qed.

(* (1) scan_block_scalar_content_line *)
Lemma fuel_content_line F acc s : rl s < F ->
  fwp (scan_block_scalar_content_line str_ops F acc) (le_post s) s.
Proof.
  intros HF. rewrite content_line_eq. apply fwp_bind.
  assert (H1 : forall f acc1 s1, rl s1 < f -> fwp (bs_go str_ops f acc1) (le_post s1) s1).
  { induction f as [|f IH]; intros acc1 s1 Hf; [exfalso; lia|]. cbn [bs_go].
    apply fwp_bind. apply fwp_buf_is_empty. destruct (Nat.eqb (lk s1) 0).
    - apply fwp_ret. kpt.
    - apply fwp_bind. apply fwp_peek. destruct (is_breakz (fnth s1 0)) eqn:Ez.
      + apply fwp_ret. kpt.
      + apply fwp_bind. apply fwp_skip_blank_real; [apply not_breakz_nz; exact Ez|]. intros s2 D2 _ L2.
        apply fwp_le_from; [lia|lia|]. apply IH. lia. }
  eapply fwp_mono; [apply H1; exact HF|]. cbv beta. intros acc1 s1 K1. clear H1.
  apply fwp_bind. apply fwp_buf_is_empty. destruct (Nat.eqb (lk s1) 0); [|apply fwp_ret; exact K1].
  assert (H2 : forall f acc2 n s2, rl s2 < f -> fwp (bs_raw str_ops f acc2 n) (le_post s2) s2).
  { induction f as [|f IH]; intros acc2 n s2 Hf; [exfalso; lia|]. cbn [bs_raw].
    assert (Hend : fwp (bind (adv_mark n) (fun _ => ret acc2)) (le_post s2) s2).
    { apply fwp_bind. apply fwp_adv_mark. intros s3 R3 L3. apply fwp_ret. pose proof (rl_eq _ _ R3). kpt. }
    apply fwp_bind. apply fwp_raw_read. destruct (frem s2) as [|c r] eqn:R2.
    - lazy beta iota. exact Hend.
    - destruct (is_breakz c).
      + lazy beta iota. exact Hend.
      + intros s3 R3 L3 E3. lazy beta iota.
        assert (Ha : rl s2 = S (length r)) by (unfold rl; rewrite R2; reflexivity).
        assert (Hb : rl s3 = length r) by (unfold rl; rewrite R3; reflexivity).
        apply fwp_le_from; [lia|lia|]. apply IH. lia. }
  eapply fwp_mono; [apply H2; kpt|]. intros a s'. exact (le_post_trans _ _ _ _ _ K1).
Qed.

(* ---------------- (2) skip_spaces_to ----------------
   [P0]: the column is not beyond the target, or the next character is not a space;
   [P1]: the column is the target, or the next character is not a space. *)
Definition P0 (indent : N) (s : fst_) : Prop := (mcol s <= indent)%N \/ fnth s 0 <> 32%N.
Definition P1 (indent : N) (s : fst_) : Prop := mcol s = indent \/ fnth s 0 <> 32%N.

Lemma fuel_skip_spaces_to indent cb : forall fuel s, rl s < fuel -> (cb = true -> 1 <= lk s) ->
  fwp (skip_spaces_to str_ops fuel indent cb) (fun _ s' => le_post s tt s' /\ (P0 indent s -> P1 indent s')) s.
Proof.
  induction fuel as [|fuel IH]; intros s Hf Hlk; [exfalso; lia|].
  cbn [skip_spaces_to]. apply fwp_bind.
  apply fwp_mono with (Q := fun e s' => s' = s /\ e = false).
  { destruct cb.
    - apply fwp_buf_is_empty. split; [reflexivity|]. apply Nat.eqb_neq. specialize (Hlk eq_refl). lia.
    - apply fwp_ret. split; reflexivity. }
  intros e s' [-> ->]. apply fwp_bind. apply fwp_col. cbn [orb].
  destruct (N.ltb_spec (mcol s) indent) as [Hlt|Hge]; cbn [negb].
  2: { apply fwp_ret. split; [kpt|]. intros [H|H]; [left; lia|right; exact H]. }
  apply fwp_bind. apply fwp_peek. destruct (N.eqb_spec (fnth s 0) 32) as [E32|N32].
  - apply fwp_bind. apply fwp_skip_blank_col; [rewrite E32; discriminate|]. intros s2 D2 L2 C2.
    eapply fwp_mono; [apply IH; [lia|intros Hc; specialize (Hlk Hc); lia]|].
    intros _ s3 [K3 P3]. split; [kpt|]. intros _. apply P3. left. rewrite C2. lia.
  - apply fwp_ret. split; [kpt|]. intros _. right. exact N32.
Qed.

(* (3) skip_block_scalar_indent *)
Lemma fuel_skip_bsi F indent : forall fuel breaks s, rl s < fuel -> rl s < F -> P0 indent s ->
  fwp (skip_block_scalar_indent str_ops F fuel indent breaks) (le_post s) s.
Proof.
  induction fuel as [|fuel IH]; intros breaks s Hf HF HP; [exfalso; lia|].
  rewrite sbsi_eq. unfold bs_spp. change (bufmaxlen str_ops) with 128.
  apply fwp_bind. destruct (Nat.ltb 128 2); [apply fwp_panic|apply fwp_ret].
  apply fwp_bind. apply fwp_mono with (Q := le_post s).
  { destruct (N.ltb indent (N.of_nat (128 - 2))).
    - apply fwp_bind. apply fwp_look_rl. intros s1 _ R1 _ L1 _ _.
      eapply fwp_mono; [apply fuel_skip_spaces_to; [lia|discriminate]|]. intros [] s2 [K2 _]. kpt.
    - apply fwp_bind.
      (* the wide loop: exactly one iteration *)
      { assert (HW : forall f, 1 <= f -> fwp (bs_wide str_ops F indent f) (le_post s) s).
        { intros f Hf1. destruct f as [|f]; [exfalso; lia|]. cbn [bs_wide]. change (bufmaxlen str_ops) with 128.
          apply fwp_bind. apply fwp_look_rl. intros s1 _ R1 N1 L1 K1 I1.
          assert (HP1 : P0 indent s1).
          { destruct HP as [H|H]; [left; rewrite (inonly_mark _ _ I1); exact H|right; rewrite N1; exact H]. }
          apply fwp_bind. eapply fwp_mono; [apply fuel_skip_spaces_to; [lia|intros _; lia]|]. intros [] s2 [K2 HP2].
          specialize (HP2 HP1).
          apply fwp_bind. apply fwp_col. apply fwp_bind. apply fwp_buf_is_empty.
          assert (He : Nat.eqb (lk s2) 0 = false) by (apply Nat.eqb_neq; kpt).
          rewrite He. apply fwp_bind. apply fwp_peek. cbn [negb andb].
          assert (Hc : ((mcol s2 =? indent)%N || negb (fnth s2 0 =? 32)%N) = true).
          { destruct HP2 as [H|H]; [rewrite H, N.eqb_refl; reflexivity|].
            apply N.eqb_neq in H. rewrite H. apply orb_true_r. }
          rewrite Hc. apply fwp_ret. kpt. }
        eapply fwp_mono; [apply HW; lia|]. cbv beta.
        intros [] s1 K1. apply fwp_look_rl. intros s2 _ R2 _ L2 _ _. kpt. } }
  intros [] s1 K1. apply fwp_bind. apply fwp_next_is.
  destruct (is_break (fnth s1 0)).
  - apply fwp_bind. apply fwp_skip_break_col. intros s2 R2 L2 C2.
    apply fwp_le_from; [kpt|kpt|]. apply IH; [kpt|kpt|left; rewrite C2; lia].
  - apply fwp_ret. kpt.
Qed.

(* (4) skip_first_line_indent *)
Lemma fuel_sfli F : forall fuel maxi breaks s, rl s < fuel -> rl s < F ->
  fwp (skip_first_line_indent str_ops F fuel maxi breaks) (le_post s) s.
Proof.
  induction fuel as [|fuel IH]; intros maxi breaks s Hf HF; [exfalso; lia|].
  rewrite sfli_eq. apply fwp_bind.
  assert (HSP : forall f s1, rl s1 < f -> fwp (bs_sfl str_ops f) (le_post s1) s1).
  { induction f as [|f IHf]; intros s1 Hf1; [exfalso; lia|]. cbn [bs_sfl].
    apply fwp_bind. apply fwp_look_ch_rl. intros s2 _ R2 N2 L2 _ _.
    destruct (N.eqb_spec (fnth s1 0) 32) as [E32|N32].
    - apply fwp_bind. apply fwp_skip_blank_real; [rewrite N2, E32; discriminate|]. intros s3 D3 _ L3.
      apply fwp_le_from; [lia|lia|]. apply IHf. lia.
    - apply fwp_ret. kpt. }
  eapply fwp_mono; [apply HSP; exact HF|]. cbv beta. intros [] s1 K1. clear HSP.
  apply fwp_bind. apply fwp_col. apply fwp_bind. apply fwp_next_is.
  destruct (is_break (fnth s1 0)).
  - apply fwp_bind. apply fwp_look_rl. intros s2 _ R2 _ L2 _ _.
    apply fwp_bind. apply fwp_skip_break. intros _ s3 R3 L3.
    apply fwp_le_from; [kpt|kpt|]. apply IH; kpt.
  - apply fwp_ret. kpt.
Qed.

(* (5) scan_block_scalar *)
Section FuelBlock.
Hypothesis H_ws : fuel_skip_ws_to_eol.

Theorem scan_block_scalar_ok : fuel_scan_block_scalar.
Proof using H_ws.
  intros F literal s HF Hnz Hlk. unfold scan_block_scalar.
  apply fwp_bind. apply fwp_mark.
  (* the '|' or '>' *)
  apply fwp_bind. apply fwp_skip_non_blank_real; [exact Hnz|]. intros s1 R1 _ L1.
  apply fwp_bind. apply fwp_unroll_non_block_indents. intros s2 R2 L2. apply rl_eq in R2.
  apply fwp_bind. apply fwp_look_ch_rl. intros s3 _ R3 _ L3 _ _.
  (* the header *)
  apply fwp_bind. apply fwp_mono with (Q := le_post s3).
  { destruct ((fnth s2 0 =? 43) || (fnth s2 0 =? 45))%N.
    - apply fwp_bind. apply fwp_skip_non_blank. intros s4 R4 _ L4.
      apply fwp_bind. apply fwp_look_rl. intros s5 _ R5 _ L5 _ _.
      apply fwp_bind. apply fwp_peek. destruct (is_digit (fnth s5 0)).
      + destruct (fnth s5 0 =? 48)%N; [apply fwp_fail|].
        apply fwp_bind. apply fwp_skip_non_blank. intros s6 R6 _ L6. apply fwp_ret. kpt.
      + apply fwp_ret. kpt.
    - destruct (is_digit (fnth s2 0)).
      + destruct (fnth s2 0 =? 48)%N; [apply fwp_fail|].
        apply fwp_bind. apply fwp_skip_non_blank. intros s4 R4 _ L4.
        apply fwp_bind. apply fwp_look_rl. intros s5 _ R5 _ L5 _ _.
        apply fwp_bind. apply fwp_peek. destruct ((fnth s5 0 =? 43) || (fnth s5 0 =? 45))%N.
        * apply fwp_bind. apply fwp_skip_non_blank. intros s6 R6 _ L6. apply fwp_ret. kpt.
        * apply fwp_ret. kpt.
      + apply fwp_ret. kpt. }
  intros [chomp increment] s4 K4. lazy beta iota.
  (* the rest of the header line *)
  apply fwp_bind. eapply fwp_mono; [apply H_ws; kpt|]. intros tw s5 K5.
  apply fwp_bind. apply fwp_look_rl. intros s6 _ R6 _ L6 _ _.
  apply fwp_bind. apply fwp_peek.
  destruct (is_breakz (fnth s6 0)) eqn:Ebz; cbn [negb]; [|apply fwp_fail].
  apply fwp_bind. apply fwp_mono with (Q := fun _ s7 => le_post s6 tt s7 /\ (mcol s7 = 0%N \/ fnth s7 0 = 0%N)).
  { destruct (is_break (fnth s6 0)) eqn:Eb.
    - apply fwp_bind. apply fwp_look_rl. intros s7 _ R7 _ L7 _ _.
      apply fwp_bind. apply fwp_skip_break_col. intros s8 R8 L8 C8. apply fwp_ret. split; [kpt|left; exact C8].
    - apply fwp_ret. split; [kpt|right]. unfold is_breakz in Ebz. rewrite Eb in Ebz. cbn [orb] in Ebz.
      apply N.eqb_eq. exact Ebz. }
  intros cbreak s7 [K7 D7].
  apply fwp_bind. apply fwp_look_ch_rl. intros s8 _ R8 N8 L8 _ I8.
  destruct (fnth s7 0 =? 9)%N; [apply fwp_fail|].
  apply fwp_bind. apply fwp_get.
  (* the indentation of the first content line *)
  match goal with |- fwp (bind (if N.eqb ?i 0 then _ else _) _) _ _ => set (indent0 := i) end.
  apply fwp_bind. apply fwp_mono with (Q := le_post s8).
  { destruct (N.eqb indent0 0).
    - apply fwp_bind. eapply fwp_mono; [apply fuel_sfli; kpt|]. intros r s9 K9. apply fwp_ret. exact K9.
    - apply fwp_bind. eapply fwp_mono; [apply fuel_skip_bsi; [kpt|kpt|]|].
      + destruct D7 as [H|H]; [left; rewrite (inonly_mark _ _ I8), H; lia|right; rewrite N8, H; discriminate].
      + intros r s9 K9. apply fwp_ret. exact K9. }
  intros [indent tbreaks] s9 K9. lazy beta iota.
  apply fwp_bind. apply fwp_next_is. apply fwp_bind. apply fwp_get.
  destruct (is_z (fnth s9 0)).
  { apply fwp_ret. kpt. }
  (* "wrongly indented" check *)
  apply fwp_bind. apply fwp_mono with (Q := le_post s9).
  { dif; [|apply fwp_ret; kpt].
    apply fwp_bind. apply fwp_look_rl. intros s10 _ R10 _ L10 _ _.
    apply fwp_bind. apply fwp_next_is_document_indicator. intros di. apply fwp_ret. kpt. }
  intros wrong s10 K10. destruct wrong; [apply fwp_fail|].
  apply fwp_bind. apply fwp_get.
  (* the main loop: one content line per round, each round consumes its line break *)
  apply fwp_bind.
  match goal with |- fwp (?g F [] 0%N tbreaks false) _ _ =>
    assert (Hgo : forall f acc lb tb ldb s5, rl s5 < f -> rl s5 < F -> fwp (g f acc lb tb ldb) (le_post s5) s5) end.
  { induction f as [|f IH]; intros acc lb tb ldb t5 Hf HF5; [exfalso; lia|]. lazy beta iota.
    apply fwp_bind. apply fwp_col. apply fwp_bind. apply fwp_next_is.
    dif; [apply fwp_ret; kpt|].
    apply fwp_bind. apply fwp_mono with (Q := le_post t5).
    { destruct (N.eqb indent 0); [|apply fwp_ret; kpt].
      apply fwp_bind. apply fwp_look_rl. intros t6 _ T6 _ J6 _ _.
      apply fwp_next_is_document_indicator. intros r. kpt. }
    intros de t6 Kt6. destruct de; [apply fwp_ret; exact Kt6|].
    apply fwp_bind. apply fwp_next_is. cbv zeta.
    apply fwp_bind. eapply fwp_mono; [apply fuel_content_line; kpt|]. intros acc1 t7 Kt7.
    apply fwp_bind. apply fwp_look_rl. intros t8 _ T8 _ J8 _ _.
    apply fwp_bind. apply fwp_next_is.
    destruct (is_z (fnth t8 0)); [apply fwp_ret; kpt|].
    apply fwp_bind. apply fwp_skip_break_col. intros t9 T9 J9 D9.
    apply fwp_bind. eapply fwp_mono; [apply fuel_skip_bsi; [kpt|kpt|left; rewrite D9; lia]|]. intros tb1 t10 Kt10.
    apply fwp_le_from; [kpt|kpt|]. apply IH; kpt. }
  eapply fwp_mono; [apply Hgo; kpt|]. clear Hgo. intros [[acc lb] tb] s11 K11. lazy beta iota.
  apply fwp_bind. apply fwp_next_is. apply fwp_bind. apply fwp_col.
  apply fwp_bind. apply fwp_mark. apply fwp_ret. kpt.
Qed.

End FuelBlock.

Print Assumptions scan_block_scalar_ok.
