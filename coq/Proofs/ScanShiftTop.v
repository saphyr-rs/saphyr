(* C15, scanner level: TAIL INDEPENDENCE of the scanner - assembly.

   1. The character-level contracts (ScanShiftPrim/Dir/Flow/Plain/Block.v) plugged into the skeleton
      (ScanShiftFetch.v): [fetch_next_token], [fetch_more_tokens], [next_token] and [scan_all], run from two states
      related by [SH d] (the same remaining text, side 2 shifted by [d]), end the same way: related states and
      shifted tokens, or the same error site at the shifted marker.  Any fuels.
   2. The same with the token relation spelled as a function: side 2 delivers [map (sht d)] of side 1's tokens.
   3. A by-product on the diagonal: [sc_adjacent s <= m_index (sc_mark s)] in every reachable state.
   4. The document boundary: the state in which the scanner stands behind a document marker line ([...] at flow
      level 0: the marker configuration of DocScan.v) is related to the state in which the scanner of the
      remaining text ALONE stands after StreamStart, with [d] = the position of the boundary; hence the tokens
      delivered from there are the tokens of the remaining text alone, StreamStart removed, every position
      shifted ([tail_independence]). *)
From Coq Require Import List NArith ZArith Bool Arith Lia.
Import ListNotations.
Require Import Parser SBase SPrim SDir SScalar SFetch ScanRun ScanFrame DocScan.
Require Import ScanShift ScanShiftPrim ScanShiftFetch.
Require ScanShiftDir ScanShiftFlow ScanShiftPlain ScanShiftBlock.
Local Open Scope nat_scope.

(* 1. Instantiation *)
Section Inst.
Variable d : shift.
Let Hd := ScanShiftDir.scan_directive_ok d.
Let Ht := ScanShiftDir.scan_tag_ok d.
Let Hf := ScanShiftFlow.scan_flow_scalar_ok d.
Let Hp := ScanShiftPlain.scan_plain_scalar_ok d.
Let Hb := ScanShiftBlock.scan_block_scalar_ok d.

Theorem fetch_next_token_shift : shf_fetch_next_token d.
Proof. exact (fetch_next_token_ok d Hd Ht Hf Hp Hb). Qed.
Theorem fetch_next_token_shift_gen F1 F2 (s1 s2 : bst) :
  sc_stream_start s1 = true -> sc_stream_start s2 = true ->
  swp d (skip_to_next_token sops F1) (skip_to_next_token sops F2) (bpost_al d eq) (bump 1 s1) (bump 1 s2) ->
  swp d (fetch_next_token sops F1) (fetch_next_token sops F2) (bpost d eq) s1 s2.
Proof. exact (fetch_next_token_gen d Hd Ht Hf Hp Hb F1 F2 s1 s2). Qed.
Theorem fetch_more_tokens_shift : shf_fetch_more_tokens d.
Proof. exact (fetch_more_tokens_ok d Hd Ht Hf Hp Hb). Qed.
Theorem next_token_shift : shf_next_token d.
Proof. exact (next_token_ok d Hd Ht Hf Hp Hb). Qed.
Theorem scan_all_shift_rel : shf_scan_all d.
Proof. exact (scan_all_ok d Hd Ht Hf Hp Hb). Qed.
End Inst.

(* 2. The functional reading *)
(* how two scans end, as a function: the same end, an error marker shifted *)
Definition she (d : shift) (e : scan_end) : scan_end :=
  match e with SError a k => SError a (shm d k) | _ => e end.
Lemma ES_proper d e1 e2 : ES d e1 e2 -> proper_end e1 -> proper_end e2 -> e2 = she d e1.
Proof.
  destruct e1, e2; cbn; try tauto; try reflexivity. intros [-> H] _ _. rewrite (MS_eq d _ _ H). reflexivity.
Qed.

(* ONE STEP: the same result, shifted *)
Theorem next_token_shift_fun d F1 F2 (s1 s2 : bst) : SH d s1 s2 ->
  match next_token sops F1 s1, next_token sops F2 s2 with
  | Ok (o1, t1), Ok (o2, t2) => o2 = option_map (sht d) o1 /\ SH d t1 t2
  | Err e1 k1, Err e2 k2 => e1 = e2 /\ k2 = shm d k1
  | Ok _, Err _ _ | Err _ _, Ok _ => False
  | _, _ => True
  end.
Proof.
  intros H. pose proof (bwp_elim d _ _ _ _ _ (next_token_shift d F1 F2 s1 s2 H)) as HN.
  destruct (next_token sops F1 s1) as [[o1 t1]|e1 k1|p1|]; destruct (next_token sops F2 s2) as [[o2 t2]|e2 k2|p2|]; auto.
  - destruct HN as [HO HT]. split; [|exact HT]. destruct o1 as [a1|], o2 as [a2|]; cbn in HO; try contradiction; [|reflexivity].
    cbn [option_map]. rewrite (TS_eq d _ _ HO). reflexivity.
  - destruct HN as [-> HM]. split; [reflexivity|apply MS_eq; exact HM].
Qed.

(* THE WHOLE SCAN *)
Theorem scan_all_shift d F1 F2 n1 n2 (s1 s2 : bst) acc : SH d s1 s2 ->
  let r1 := scan_all sops F1 n1 s1 acc in
  let r2 := scan_all sops F2 n2 s2 (map (sht d) acc) in
  ES d (snd r1) (snd r2)
  /\ (proper_end (snd r1) -> proper_end (snd r2) -> fst r2 = map (sht d) (fst r1) /\ snd r2 = she d (snd r1)).
Proof.
  intros H r1 r2. destruct (scan_all_shift_rel d F1 F2 n1 n2 s1 s2 acc (map (sht d) acc) H (TSs_map d acc)) as [HE HT].
  split; [exact HE|]. intros P1 P2. split; [apply TSs_eq; apply HT; assumption|apply ES_proper; assumption].
Qed.

(* 3. The diagonal: adjacent_value_allowed_at never lies in the future *)
Definition d0 : shift := {| sh_i := 0; sh_l := 0; sh_k := 0 |}.
Definition adj_ok (s : bst) : Prop := (sc_adjacent s <= m_index (sc_mark s))%N.
Lemma MS_diag m : MS d0 m m.
Proof. unfold MS, d0. cbn [sh_i sh_l]. lia. Qed.
Lemma TS_diag t : TS d0 t t.
Proof. split; [split; apply MS_diag|reflexivity]. Qed.
Lemma KS_diag k : KS d0 k k.
Proof. split; auto; intros _; [unfold d0; cbn [sh_k]; lia|apply MS_diag]. Qed.
Lemma F2_diag {A} (R : A -> A -> Prop) l : (forall a, R a a) -> Forall2 R l l.
Proof. intros H. induction l; constructor; auto. Qed.
Lemma SH_diag (s : bst) : adj_ok s -> SH d0 s s.
Proof.
  intros HA. constructor.
  - constructor; reflexivity.
  - apply MS_diag.
  - apply F2_diag. exact TS_diag.
  - apply F2_diag. exact KS_diag.
  - unfold ADJ. unfold adj_ok in HA. split; [exact HA|split; [exact HA|right; tauto]].
  - unfold d0. cbn [sh_k]. lia.
  - reflexivity.
Qed.
Lemma SH_adj_ok d (s1 s2 : bst) : SH d s1 s2 -> adj_ok s1 /\ adj_ok s2.
Proof. intros H. destruct (sh_adj H) as (A1 & A2 & _). split; assumption. Qed.

(* a function that commutes with the shift, run against itself *)
Lemma diag_adj_ok {A} (m : BM A) (R : A -> A -> Prop) (s : bst) a s' :
  swp d0 m m (bpost d0 R) s s -> m s = Ok (a, s') -> adj_ok s'.
Proof. intros H E. apply (bwp_elim d0) in H. rewrite E in H. exact (proj1 (SH_adj_ok _ _ _ (proj2 H))). Qed.
Theorem fetch_next_token_adj_ok F (s : bst) a s' : adj_ok s -> fetch_next_token sops F s = Ok (a, s') -> adj_ok s'.
Proof. intros HA. exact (diag_adj_ok _ _ s a s' (fetch_next_token_shift d0 F F s s (SH_diag s HA))). Qed.
Theorem next_token_adj_ok F (s : bst) o s' : adj_ok s -> next_token sops F s = Ok (o, s') -> adj_ok s'.
Proof. intros HA. exact (diag_adj_ok _ _ s o s' (next_token_shift d0 F F s s (SH_diag s HA))). Qed.
Theorem reach_adj_ok F (s : bst) : reach sops F s -> adj_ok s.
Proof.
  induction 1 as [i|s o s' _ IH E]; [unfold adj_ok; cbn; lia|]. eapply next_token_adj_ok; eauto.
Qed.
Lemma fetches_adj_ok F k : forall (s s' : bst), adj_ok s -> fetches sops F k s = Some s' -> adj_ok s'.
Proof.
  induction k as [|k IH]; intros s s' HA; cbn [fetches]; [intros H; inversion H; subst; exact HA|].
  destruct (fetch_next_token sops F s) as [[a s1]| | |] eqn:E; try discriminate.
  apply IH. eapply fetch_next_token_adj_ok; eauto.
Qed.

(* 4. The document boundary *)
(* the scanner of a text [B] after it has delivered StreamStart *)
Definition start_mark : marker := {| m_index := 0; m_line := 1; m_col := 0 |}.
Definition start_state (B : list chr) : bst :=
  {| sc_in := {| si_chars := B; si_look := 1 |}; sc_mark := start_mark; sc_tokens := [];
     sc_stream_start := true; sc_stream_end := false; sc_adjacent := 0; sc_ska := true;
     sc_sks := [{| sk_possible := false; sk_required := false; sk_token_number := 0; sk_mark := mk0 |}];
     sc_indent := (-1)%Z; sc_indents := []; sc_flow_level := 0; sc_tokens_parsed := 1;
     sc_token_available := false; sc_lws := true; sc_ifms := [] |}.
Definition ss_token : token := (span_empty start_mark, TStreamStart).
Lemma first_token B F : 2 <= F ->
  next_token sops F (init_sc {| si_chars := B; si_look := 0 |}) = Ok (Some ss_token, start_state B).
Proof. intros HF. destruct F as [|[|f]]; [lia|lia|reflexivity]. Qed.
Lemma start_state_config B : marker_config (start_state B) /\ sc_ska (start_state B) = true.
Proof. unfold marker_config. cbn. repeat split; auto. eexists; split; reflexivity. Qed.

(* the shift of a boundary state: its position *)
Definition bd (s : bst) : shift :=
  {| sh_i := m_index (sc_mark s); sh_l := m_line (sc_mark s) - 1; sh_k := sc_tokens_parsed s - 1 |}.

(* THE BOUNDARY RELATION.  [s]: any state in the marker configuration with simple keys allowed (what
   C15_marker_token_resets + C15_marker_then_newline / C15_stream_start_config establish), standing at the beginning
   of a line with nothing queued.  It is the state of the scanner of the remaining text alone after StreamStart,
   moved to the position of [s]. *)
Theorem SH_boundary (s : bst) :
  marker_config s -> sc_ska s = true ->
  m_col (sc_mark s) = 0%N -> (1 <= m_line (sc_mark s))%N -> sc_lws s = true ->
  sc_tokens s = [] -> sc_token_available s = false -> sc_stream_end s = false ->
  adj_ok s -> (1 <= sc_tokens_parsed s)%N -> Nat.eqb (lk s) 0 = false ->
  SH (bd s) (start_state (rm s)) s.
Proof.
  intros (C1 & C2 & C3 & C4 & C5 & k & C6 & C7) EK EC EL EW ET EA EE HA EP EB.
  constructor; cbn [start_state sc_in sc_mark sc_tokens sc_sks sc_adjacent sc_flow_level sc_tokens_parsed].
  - constructor; cbn [si_chars si_look]; [reflexivity|]. fold (lk s). rewrite EB. reflexivity.
  - unfold MS, bd, start_mark. cbn [m_index m_line m_col sh_i sh_l]. rewrite EC. lia.
  - rewrite ET. constructor.
  - rewrite C6. constructor; [|constructor]. apply KS_dead_any; [reflexivity|exact C7].
  - unfold ADJ. unfold adj_ok in HA. split; [lia|split; [exact HA|left; reflexivity]].
  - unfold bd. cbn [sh_k]. lia.
  - unfold skel. cbn [start_state sc_stream_start sc_stream_end sc_ska sc_indent sc_indents sc_flow_level
                      sc_token_available sc_lws sc_ifms].
    rewrite C1, C2, C3, C4, C5, EK, EW, EA, EE. reflexivity.
Qed.

(* crossing the line break behind the marker *)
Definition after_break (sm : bst) : bst := set_ska true (slb (bump 2 (bump 1 sm))).

Lemma break_not_blank c : is_break c = true -> (c =? 9)%N = false /\ (c =? 32)%N = false.
Proof.
  unfold is_break. intros H. apply orb_true_iff in H. destruct H as [H|H]; apply N.eqb_eq in H; subst c; split; reflexivity.
Qed.
Lemma slb_flow_level (s : bst) : sc_flow_level (slb s) = sc_flow_level s.
Proof. unfold slb. destruct (_ && _); [reflexivity|]. destruct (is_break _); reflexivity. Qed.
Lemma ltb_max2 n : Nat.ltb (Nat.max n 2) 2 = false.
Proof. apply Nat.ltb_ge. lia. Qed.
Lemma skip_to_next_token_break f (sm : bst) : is_break (rn sm 0) = true -> sc_flow_level sm = 0%N ->
  skip_to_next_token sops (S f) sm = skip_to_next_token sops f (after_break sm).
Proof.
  intros HB HF. destruct (break_not_blank _ HB) as [E9 E32].
  cbn [skip_to_next_token]. unfold bind at 1. rewrite look_ch_ok.
  unfold bind at 1, get at 1. unfold bind at 1, is_within_block at 1, gets at 1.
  rewrite E9, E32. cbn [andb orb]. unfold is_break in HB. rewrite HB.
  unfold bind at 1. rewrite look_ok. unfold bind at 1. rewrite skip_linebreak_eval.
  rewrite lk_bump, ltb_max2.
  unfold bind at 1, flow_level at 1, gets at 1. rewrite slb_flow_level.
  change (sc_flow_level (bump 2 (bump 1 sm))) with (sc_flow_level sm). rewrite HF. cbn [N.eqb].
  unfold bind at 1, allow_simple_key at 1, modify at 1. reflexivity.
Qed.

(* what [after_break] does to a state standing at a line break *)
Lemma after_break_shape (sm : bst) : is_break (rn sm 0) = true ->
  exists i m, after_break sm = set_ska true (set_lws true (set_mark m (set_in i sm)))
    /\ m_col m = 0%N /\ m_line m = (m_line (sc_mark sm) + 1)%N /\ (m_index (sc_mark sm) <= m_index m)%N
    /\ Nat.eqb (si_look i) 0 = false.
Proof.
  intros HB. unfold after_break, slb.
  change (rn (bump 2 (bump 1 sm)) 0) with (rn sm 0). rewrite HB.
  assert (EL : forall n, Nat.eqb (Nat.max n 2) 0 = false) by (intros n; apply Nat.eqb_neq; lia).
  (* CR LF, or a single break character: two or one characters are dropped *)
  destruct (_ && _); (eexists _, _; split; [reflexivity|]);
    cbn [nlm adv m_col m_line m_index bl1 drop1 set_mark set_in upd sc_mark sc_in bump lk si_look];
    (split; [reflexivity|]); (split; [reflexivity|]); (split; [lia|apply EL]).
Qed.

(* the state behind the break satisfies the hypotheses of [SH_boundary] *)
Lemma after_break_boundary (sm : bst) :
  marker_config sm -> is_break (rn sm 0) = true ->
  sc_tokens sm = [] -> sc_token_available sm = false -> sc_stream_end sm = false ->
  adj_ok sm -> (1 <= sc_tokens_parsed sm)%N ->
  SH (bd (after_break sm)) (start_state (rm (after_break sm))) (after_break sm).
Proof.
  intros HC HB ET EA EE HA EP. destruct (after_break_shape sm HB) as (i & m & -> & M1 & M2 & M3 & M4).
  apply SH_boundary; skel_cbn; try assumption; try reflexivity.
  - lia.
  - unfold adj_ok in *. skel_cbn. lia.
Qed.

Section Boundary.
Variable d : shift.
Local Notation bwp := (swp d).

(* ONE fetch step across the boundary: side 1 stands behind StreamStart, side 2 in front of the line break that
   ends the marker line *)
Theorem fetch_next_token_boundary F1 F2 (s1 sm : bst) :
  sc_stream_start s1 = true -> sc_stream_start sm = true ->
  is_break (rn sm 0) = true -> sc_flow_level sm = 0%N ->
  SH d (bump 1 s1) (after_break (bump 1 sm)) ->
  bwp (fetch_next_token sops F1) (fetch_next_token sops (S F2)) (bpost d eq) s1 sm.
Proof.
  intros E1 E2 HB HF H. apply fetch_next_token_shift_gen; [exact E1|exact E2|].
  eapply bwp_ext_r; [apply skip_to_next_token_break; [exact HB|exact HF]|].
  apply (skip_to_next_token_ok d). exact H.
Qed.

Theorem next_token_boundary F1 F2 (s1 sm : bst) :
  sc_stream_start s1 = true -> sc_stream_start sm = true ->
  is_break (rn sm 0) = true -> sc_flow_level sm = 0%N ->
  sc_tokens s1 = [] -> sc_tokens sm = [] -> sc_token_available s1 = false -> sc_token_available sm = false ->
  sc_stream_end s1 = false -> sc_stream_end sm = false ->
  SH d (bump 1 s1) (after_break (bump 1 sm)) ->
  bwp (next_token sops F1) (next_token sops (S F2)) (bpost d (OTS d)) s1 sm.
Proof.
  intros E1 E2 HB HF T1 T2 A1 A2 X1 X2 H. unfold next_token.
  apply bwp_bind. apply bwp_get. cbv beta. rewrite X1, X2, A1, A2.
  eapply (bwp_call_eq d).
  { destruct F1 as [|F1]; [exact I|]. cbn [fetch_more_tokens].
    apply bwp_bind. apply bwp_get. cbv beta. rewrite T1, T2.
    apply bwp_bind. apply bwp_ret. cbv beta iota.
    eapply (bwp_call_eq d); [apply fetch_next_token_boundary; assumption|]. intros [] v1 v2 HV.
    apply fetch_more_tokens_shift. exact HV. }
  intros [] u1 u2 HU.
  apply bwp_bind. apply bwp_get. cbv beta. sh_sync HU.
  pose proof (sh_tokens HU) as HT. destruct HT as [|a b l1 l2 HAB HL]; [apply (bwp_fail_mark d); exact HU|].
  apply bwp_bind. apply (bwp_put_br d).
  { apply SH_set_tp; [|lia]. apply SH_set_ta. apply SH_set_tokens; [exact HU|exact HL]. }
  { reflexivity. }
  intros v1 v2 HV _.
  rewrite <- (proj2 HAB).
  eapply (bwp_call_eq d).
  { destruct (snd a); try (apply bwp_ret; split; [reflexivity|assumption]).
    apply bwp_modify. split; [reflexivity|]. apply SH_set_se. exact HV. }
  intros [] w1 w2 HW. apply bwp_ret. split; [exact HAB|exact HW].
Qed.

Theorem scan_all_boundary F1 F2 n1 n2 (s1 sm : bst) acc :
  sc_stream_start s1 = true -> sc_stream_start sm = true ->
  is_break (rn sm 0) = true -> sc_flow_level sm = 0%N ->
  sc_tokens s1 = [] -> sc_tokens sm = [] -> sc_token_available s1 = false -> sc_token_available sm = false ->
  sc_stream_end s1 = false -> sc_stream_end sm = false ->
  SH d (bump 1 s1) (after_break (bump 1 sm)) ->
  let r1 := scan_all sops F1 n1 s1 acc in
  let r2 := scan_all sops (S F2) n2 sm (map (sht d) acc) in
  ES d (snd r1) (snd r2)
  /\ (proper_end (snd r1) -> proper_end (snd r2) -> fst r2 = map (sht d) (fst r1) /\ snd r2 = she d (snd r1)).
Proof.
  intros E1 E2 HB HF T1 T2 A1 A2 X1 X2 H r1 r2. subst r1 r2.
  destruct n1 as [|n1]; [cbn [scan_all snd fst]; split; [apply ES_fuel_l|intros []]|].
  destruct n2 as [|n2]; [cbn [scan_all snd fst]; split; [apply ES_fuel_r|intros _ []]|].
  pose proof (bwp_elim d _ _ _ _ _ (next_token_boundary F1 F2 s1 sm E1 E2 HB HF T1 T2 A1 A2 X1 X2 H)) as HN.
  cbn [scan_all].
  destruct (next_token sops F1 s1) as [[o1 t1]|e1 k1|p1|].
  - destruct (next_token sops (S F2) sm) as [[o2 t2]|e2 k2|p2|].
    + destruct HN as [HO HT]. destruct o1 as [a1|], o2 as [a2|]; cbn in HO; try contradiction.
      * rewrite (TS_eq d _ _ HO). apply (scan_all_shift d F1 (S F2) n1 n2 t1 t2 (a1 :: acc)). exact HT.
      * cbn [snd fst]. split; [exact I|]. intros _ _. split; [|reflexivity]. rewrite map_rev. reflexivity.
    + destruct HN.
    + destruct o1 as [a1|]; cbn [snd fst]; (split; [apply ES_panic_r|intros _ []]).
    + destruct o1 as [a1|]; cbn [snd fst]; (split; [apply ES_fuel_r|intros _ []]).
  - destruct (next_token sops (S F2) sm) as [[o2 t2]|e2 k2|p2|].
    + destruct HN.
    + cbn [snd fst]. split; [exact HN|]. intros _ _. destruct HN as [-> HM].
      split; [rewrite map_rev; reflexivity|]. cbn [she]. rewrite (MS_eq d _ _ HM). reflexivity.
    + cbn [snd fst]. split; [apply ES_panic_r|intros _ []].
    + cbn [snd fst]. split; [apply ES_fuel_r|intros _ []].
  - cbn [snd fst]. split; [apply ES_panic_l|intros []].
  - cbn [snd fst]. split; [apply ES_fuel_l|intros []].
Qed.
End Boundary.

(* 5. TAIL INDEPENDENCE at a document boundary *)
(* [sm]: ANY scanner state in the marker configuration (C15_marker_token_resets: the state after a step that queued
   a document marker at flow level 0 - whatever the earlier documents contained), with its queue delivered,
   standing at the line break that ends the marker line.  [B] = the text behind that break.  Then the scanner
   delivers from [sm] exactly the tokens it delivers on [B] alone, StreamStart removed, every position shifted by
   the position of the boundary; it ends the same way (same error site, shifted marker). *)
Definition boundary_text (sm : bst) : list chr := rm (after_break (bump 1 sm)).
Definition boundary_shift (sm : bst) : shift := bd (after_break (bump 1 sm)).

Theorem tail_independence (sm : bst) :
  marker_config sm -> is_break (rn sm 0) = true ->
  sc_tokens sm = [] -> sc_token_available sm = false -> sc_stream_end sm = false ->
  adj_ok sm -> (1 <= sc_tokens_parsed sm)%N ->
  forall f1 F2 n1 n2 acc,
  let d := boundary_shift sm in
  let r1 := scan_all sops (S (S f1)) (S n1) (init_sc {| si_chars := boundary_text sm; si_look := 0 |}) [] in
  let r2 := scan_all sops (S F2) n2 sm acc in
  ES d (snd r1) (snd r2)
  /\ (proper_end (snd r1) -> proper_end (snd r2) ->
      fst r2 = rev acc ++ map (sht d) (tl (fst r1)) /\ snd r2 = she d (snd r1)).
Proof.
  intros HC HB ET EA EE HA EP f1 F2 n1 n2 acc d r1 r2.
  assert (HBR : SH d (bump 1 (start_state (boundary_text sm))) (after_break (bump 1 sm))).
  { change (bump 1 (start_state (boundary_text sm))) with (start_state (boundary_text sm)).
    apply after_break_boundary; try assumption. }
  pose proof HC as (C1 & _ & _ & C4 & _).
  pose proof (scan_all_boundary d (S (S f1)) F2 n1 n2 (start_state (boundary_text sm)) sm []
                eq_refl C1 HB C4 eq_refl ET eq_refl EA eq_refl EE HBR) as HS.
  cbn zeta in HS. cbn [map] in HS.
  assert (R1 : r1 = (ss_token :: fst (scan_all sops (S (S f1)) n1 (start_state (boundary_text sm)) []),
                     snd (scan_all sops (S (S f1)) n1 (start_state (boundary_text sm)) []))).
  { subst r1. cbn [scan_all]. rewrite first_token by lia. rewrite scan_all_acc. reflexivity. }
  assert (R2 : r2 = (rev acc ++ fst (scan_all sops (S F2) n2 sm []), snd (scan_all sops (S F2) n2 sm []))).
  { subst r2. apply scan_all_acc. }
  rewrite R1, R2. cbn [fst snd tl]. destruct HS as [HE HT]. split; [exact HE|].
  intros P1 P2. destruct (HT P1 P2) as [HT1 HT2]. rewrite HT1. split; [reflexivity|exact HT2].
Qed.

(* 6. Text level: the scanner run inside [run_str] *)
(* k tokens delivered by the Scanner iterator *)
Fixpoint deliver (F k : nat) (s : bst) : option (list token * bst) :=
  match k with
  | O => Some ([], s)
  | S k => match next_token sops F s with
           | Ok (Some t, s') => match deliver F k s' with Some (l, u) => Some (t :: l, u) | None => None end
           | _ => None
           end
  end.
Lemma scan_all_deliver F : forall k n (s : bst) acc pre sm, deliver F k s = Some (pre, sm) ->
  scan_all sops F (k + n) s acc = scan_all sops F n sm (rev pre ++ acc).
Proof.
  induction k as [|k IH]; intros n s acc pre sm; cbn [deliver].
  - intros H; inversion H; subst. reflexivity.
  - destruct (next_token sops F s) as [[[t|] s']| | |] eqn:E; try discriminate.
    destruct (deliver F k s') as [[l u]|] eqn:ED; try discriminate. intros H; inversion H; subst.
    cbn [Nat.add scan_all]. rewrite E. rewrite (IH n s' (t :: acc) l sm ED). cbn [rev]. rewrite <- app_assoc. reflexivity.
Qed.
Lemma deliver_reach F k : forall (s : bst) pre sm, reach sops F s -> deliver F k s = Some (pre, sm) -> reach sops F sm.
Proof.
  induction k as [|k IH]; intros s pre sm HR; cbn [deliver]; [intros H; inversion H; subst; exact HR|].
  destruct (next_token sops F s) as [[[t|] s']| | |] eqn:E; try discriminate.
  destruct (deliver F k s') as [[l u]|] eqn:ED; try discriminate. intros H; inversion H; subst.
  eapply IH; [|exact ED]. eapply reach_next; eauto.
Qed.

(* the scanner run inside [run_str y] (Pipe.v) *)
Definition str_F (y : list chr) : nat := 2 * length y + 10.
Definition str_scan (y : list chr) : list token * scan_end :=
  scan_all sops (str_F y) (4 * str_F y + 20) (init_sc {| si_chars := y; si_look := 0 |}) [].

(* TAIL INDEPENDENCE, text level: if the scanner of a text [X] has delivered [pre] and stands in a boundary state
   [sm] (marker configuration, queue delivered, at the line break behind the marker), then the tokens of [X] are
   [pre] followed by the tokens of the text behind the break scanned ALONE, StreamStart removed, shifted; the two
   scans end the same way. *)
Theorem tail_independence_text (X : list chr) k pre (sm : bst) :
  deliver (str_F X) k (init_sc {| si_chars := X; si_look := 0 |}) = Some (pre, sm) -> k <= 4 * str_F X + 20 ->
  marker_config sm -> is_break (rn sm 0) = true ->
  sc_tokens sm = [] -> sc_token_available sm = false -> sc_stream_end sm = false -> (1 <= sc_tokens_parsed sm)%N ->
  let d := boundary_shift sm in
  let rB := str_scan (boundary_text sm) in
  let rX := str_scan X in
  ES d (snd rB) (snd rX)
  /\ (proper_end (snd rB) -> proper_end (snd rX) ->
      fst rX = pre ++ map (sht d) (tl (fst rB)) /\ snd rX = she d (snd rB)).
Proof.
  intros HD Hk HC HB ET EA EE EP d rB rX.
  assert (HA : adj_ok sm).
  { apply (reach_adj_ok (str_F X)). eapply deliver_reach; [apply reach_init|exact HD]. }
  assert (EX : rX = scan_all sops (str_F X) (4 * str_F X + 20 - k) sm (rev pre)).
  { subst rX. unfold str_scan. replace (4 * str_F X + 20) with (k + (4 * str_F X + 20 - k)) at 1 by lia.
    rewrite (scan_all_deliver _ _ _ _ [] pre sm HD), app_nil_r. reflexivity. }
  rewrite EX. subst rB. unfold str_scan.
  assert (EF : exists f1, str_F (boundary_text sm) = S (S f1)) by (unfold str_F; exists (2 * length (boundary_text sm) + 8); lia).
  destruct EF as [f1 EF]. rewrite EF.
  assert (EN : exists n1, 4 * S (S f1) + 20 = S n1) by (exists (4 * S (S f1) + 19); lia).
  destruct EN as [n1 EN]. rewrite EN.
  assert (EF2 : exists F2, str_F X = S F2) by (unfold str_F; exists (2 * length X + 9); lia).
  destruct EF2 as [F2 EF2]. rewrite EF2.
  pose proof (tail_independence sm HC HB ET EA EE HA EP f1 F2 n1 (4 * S F2 + 20 - k) (rev pre)) as HT.
  cbn zeta in HT. rewrite rev_involutive in HT. exact HT.
Qed.

Print Assumptions fetch_next_token_shift.
Print Assumptions fetch_more_tokens_shift.
Print Assumptions next_token_shift.
Print Assumptions scan_all_shift.
Print Assumptions reach_adj_ok.
Print Assumptions SH_boundary.
Print Assumptions fetch_next_token_boundary.
Print Assumptions next_token_boundary.
Print Assumptions scan_all_boundary.
Print Assumptions tail_independence.
Print Assumptions tail_independence_text.
