(* C04 in document context, part 5: scan_plain_scalar on a presentation of the specification that is followed by a SIBLING
   LINE: white space (spaces and line feeds), a line feed, then a line that starts at column 0 with a character that is
   neither a blank nor a break -- inside a block collection (indentation >= 0) that line ends the scalar.  The statement of
   C04_plain_full for this follower class WITH the input that is left (the sibling line) and the flags the scanner leaves
   (leading_whitespace, hence simple_key_allowed).  Generic part: [scan_plain_scalar_rem], the theorem for any follower whose
   run is given with a postcondition that keeps the final input. *)
From Coq Require Import List NArith ZArith Bool Arith Lia.
Import ListNotations.
Require Import Parser SBase SPrim SScalar FlowFold FlowScalarProofs PlainScalarProofs ScalarContextQuoted ScalarContext2Plain.
Open Scope N_scope.
Open Scope mon_scope.

(* the scalar is returned, [fin] is left, leading_whitespace satisfies W *)
Definition Qr (s0 : sc strin) (fin : list N) (W : bool -> Prop) (final : list chr) (o : outcome (list chr * marker * sc strin)) : Prop :=
  exists endm l' m' w', o = Ok ((final, endm), st_with s0 fin l' m' w') /\ W w'.

(* C04_plain_full for any follower whose run is known with its final input *)
Theorem scan_plain_scalar_rem :
  forall (F n : nat) (first : list N) (more : list (brk_layout * list N)) (rest fin : list N) (W : bool -> Prop) (s : sc strin),
    plain_layout_wf (0 <? sc_flow_level s) n first more = true ->
    si_chars (sc_in s) = plain_render first more ++ rest ->
    plain_follower_ok (0 <? sc_flow_level s) (eff_indent s) rest = true ->
    (forall s0 start L f acc m, (128 <= L)%nat -> sc_indent s0 = eff_indent s -> sc_flow_level s0 = sc_flow_level s ->
       (length rest + 2 <= F)%nat -> acc <> [] -> col_ok s0 m ->
       Qr s0 fin W acc (after_chunk F s0 start (ploop F (sc_indent s0 + 1) start (S f)) false 0 [] acc (st_with s0 rest L m false))) ->
    (eff_indent s < Z.of_nat n)%Z ->
    (eff_indent s < Z.of_N (m_col (sc_mark s)))%Z ->
    (sc_lws s = true -> m_col (sc_mark s) = 0 -> marker_at_col0 [] first = false) ->
    (2 * length (si_chars (sc_in s)) + 10 <= F)%nat ->
    exists sp s' w',
      scan_plain_scalar str_ops F s = Ok ((sp, TScalar Plain (plain_text first more)), s')
      /\ sp_start sp = sc_mark s /\ si_chars (sc_in s') = fin /\ W w' /\ sc_lws s' = w' /\ (w' = true -> sc_ska s' = true).
Proof.
  intros F n first more rest fin W s Hwf Hsrc Hfollow Hrun Hn Hcol Hmk HF.
  set (s1 := let '(ind, l) := unroll_nb (sc_indents s) (sc_indent s) in set_indent ind l s).
  assert (E1 : unroll_non_block_indents s = Ok (tt, s1)) by reflexivity.
  assert (Hs1 : sc_indent s1 = eff_indent s /\ sc_flow_level s1 = sc_flow_level s /\ sc_mark s1 = sc_mark s
                /\ sc_in s1 = sc_in s /\ sc_lws s1 = sc_lws s).
  { unfold s1, eff_indent. destruct (unroll_nb (sc_indents s) (sc_indent s)) as [ind l]. repeat split. }
  destruct Hs1 as [Hi1 [Hf1 [Hm1 [Hin1 Hw1]]]].
  assert (Hrun' : scan_plain_scalar str_ops F s
                 = (r <- ploop F (sc_indent s1 + 1) (sc_mark s) F [] false 0 [] (sc_mark s) ;; pfinish (sc_mark s) r)
                     (st_with s1 (plain_render first more ++ rest) (si_look (sc_in s)) (sc_mark s) (sc_lws s))).
  { rewrite scan_plain_scalar_phases.
    mstep E1. mstep (eq_refl : get s1 = Ok (s1, s1)). cbv zeta.
    rewrite Hf1, Hm1, Hi1.
    replace (Z.of_N (m_col (sc_mark s)) <? eff_indent s + 1)%Z with false by (symmetry; apply Z.ltb_ge; lia).
    rewrite andb_false_r.
    rewrite <- Hsrc, <- Hin1, <- Hw1. f_equal. rewrite <- Hm1. apply st_with_id. }
  rewrite Hrun'. clear Hrun'. clearbody s1. clear E1.
  set (l := si_look (sc_in s)). set (m := sc_mark s). set (w := sc_lws s).
  set (L := Nat.max (Nat.max l 4) 128).
  assert (HL : (128 <= L)%nat) by (unfold L; lia).
  unfold plain_layout_wf in Hwf. apply andb_prop in Hwf. destruct Hwf as [Hwf Hmore].
  apply andb_prop in Hwf. destruct Hwf as [Hfirst Hline].
  rewrite <- Hf1 in Hfirst, Hline, Hmore, Hfollow. rewrite <- Hi1 in Hfollow, Hn, Hcol.
  fold (more_wf (0 <? sc_flow_level s1) n more) in Hmore.
  destruct first as [|c0 t]; [discriminate Hline|].
  rewrite Hsrc in HF.
  unfold plain_render in *. fold (src_more more) in *. rewrite <- app_assoc in *. cbn [app] in *. cbn [length] in HF. rewrite app_length in HF.
  destruct F as [|f]; [lia|].
  assert (Hn' : (sc_indent s1 + 1 <= Z.of_nat n)%Z) by lia.
  assert (Hstop : stops_chunk s1 (src_more more ++ rest)).
  { apply (stops_src_more (S f) s1 m L HL n rest Hfollow). exact Hmore. }
  assert (Hch : plain_line_chars_wf (0 <? sc_flow_level s1) 0 (c0 :: t) = true).
  { unfold plain_line_wf in Hline. apply andb_prop in Hline. tauto. }
  cbn [ploop].
  pose proof (line_run (S f) s1 m L HL n (src_more more ++ rest)
                (fun a o => Qr s1 fin W (rev (rest_text more) ++ a) o) (length (src_more more ++ rest) + 2)%nat) as LR.
  destruct (LR (fun f' acc' m' HB' Hacc' Hm' =>
                  lines_run_gen (S f) s1 m L HL n Hn' rest (Qr s1 fin W) Hfollow
                    (fun f2 acc2 m2 H1 H2 H3 => Hrun s1 m L f2 acc2 m2 HL Hi1 Hf1 H1 H2 H3)
                    more f' acc' m' Hmore HB' ltac:(rewrite app_length in *; lia) Hacc' Hm')
               Hstop c0 t [] false 0 [] m l m w [] f Hline) as [endm [l' [m' [w' [E HW]]]]].
  - intros Hz. apply andb_prop in Hz. destruct Hz as [Hz1 Hz2]. apply N.eqb_eq in Hz2.
    apply (no_marker_no_doc_ind s1 (c0 :: t) (src_more more ++ rest) Hch); [|exact Hstop].
    apply Hmk; assumption.
  - cbn [andb]. destruct (N.eqb_spec c0 45) as [->|H45]; [|rewrite andb_false_r; reflexivity].
    rewrite andb_true_r. unfold plain_first_wf in Hfirst. change (c_indicator 45) with true in Hfirst.
    cbn [negb orb] in Hfirst. apply andb_prop in Hfirst. destruct Hfirst as [_ Hsafe].
    destruct t as [|c1 t]; [discriminate Hsafe|]. cbn [hd app nth] in *.
    exact (proj2 (ns_plain_safe_facts _ _ Hsafe)).
  - destruct w; reflexivity.
  - reflexivity.
  - lia.
  - rewrite app_length in *. lia.
  - unfold col_ok. fold m in Hcol. lia.
  - assert (Erev : rev (rest_text more) ++ rev t ++ [c0] = rev ((c0 :: t) ++ rest_text more))
      by (rewrite rev_app_distr; cbn [rev]; reflexivity).
    cbv beta in E. unfold chr in *. rewrite Erev in E. clear Erev. rewrite plain_text_rest.
    assert (Einv : rev (rev ((c0 :: t) ++ rest_text more)) = (c0 :: t) ++ rest_text more) by apply rev_involutive.
    revert E Einv. destruct (rev ((c0 :: t) ++ rest_text more)) as [|x y] eqn:Er; intros E Einv.
    { apply (f_equal (@length N)) in Er. rewrite rev_length in Er. discriminate Er. }
    rewrite (bind_Ok _ _ _ _ _ E).
    unfold pfinish. mstep (eq_refl : get (st_with s1 fin l' m' w') = Ok (st_with s1 fin l' m' w', st_with s1 fin l' m' w')).
    assert (Ea : exists s'', (if sc_lws (st_with s1 fin l' m' w') then allow_simple_key else ret tt) (st_with s1 fin l' m' w') = Ok (tt, s'')
                             /\ si_chars (sc_in s'') = fin /\ sc_lws s'' = w' /\ (w' = true -> sc_ska s'' = true)).
    { cbn [sc_lws st_with]. destruct w'; eexists; (split; [reflexivity|]); (split; [reflexivity|]); (split; [reflexivity|]); [reflexivity|discriminate]. }
    destruct Ea as [s'' [Ea [Hin [Hlw Hska]]]]. mstep Ea. cbn [fst snd]. unfold chr. rewrite Einv.
    eexists. eexists. exists w'. split; [reflexivity|]. split; [reflexivity|]. split; [exact Hin|]. split; [exact HW|]. split; [exact Hlw|exact Hska].
Qed.

(* C04_plain_full for a follower of spaces and line feeds, with the input that is left: none *)
Theorem scan_plain_scalar_ws :
  forall (F n : nat) (first : list N) (more : list (brk_layout * list N)) (rest : list N) (s : sc strin),
    plain_layout_wf (0 <? sc_flow_level s) n first more = true ->
    si_chars (sc_in s) = plain_render first more ++ rest ->
    ws_only rest = true ->
    (eff_indent s < Z.of_nat n)%Z ->
    (eff_indent s < Z.of_N (m_col (sc_mark s)))%Z ->
    (sc_lws s = true -> m_col (sc_mark s) = 0 -> marker_at_col0 [] first = false) ->
    (2 * length (si_chars (sc_in s)) + 10 <= F)%nat ->
    exists sp s',
      scan_plain_scalar str_ops F s = Ok ((sp, TScalar Plain (plain_text first more)), s')
      /\ sp_start sp = sc_mark s /\ si_chars (sc_in s') = [].
Proof.
  intros F n first more rest s Hwf Hsrc Hws Hn Hcol Hmk HF.
  destruct (scan_plain_scalar_rem F n first more rest [] (fun _ => True) s Hwf Hsrc (ws_only_plain_follower _ _ rest Hws))
    as (sp & s' & w' & E & Hsp & Hin & _); try assumption.
  - intros s0 start L f acc m HL Hi _ HF2 Hacc Hm.
    destruct (ws_follower_run F s0 start L HL n rest Hws f acc m HF2 Hacc Hm) as (endm & l' & m' & w' & E).
    exists endm, l', m', w'. split; [exact E|exact I].
  - exists sp, s'. repeat split; assumption.
Qed.

(* the sibling-line follower: ws ++ LF :: x :: r, x at column 0 *)
Definition sib_head (x : N) : Prop := is_blank x = false /\ is_break x = false /\ (x =? 0) = false.

Lemma sib_after_break_ok indent x r : (0 <= indent)%Z -> sib_head x ->
  forall ws col, ws_only ws = true -> after_break_ok false indent col (ws ++ 10 :: x :: r) = true.
Proof.
  intros Hi (Hb & Hk & Hz). induction ws as [|c ws IH]; intros col H.
  - cbn [app after_break_ok]. change (10 =? 32) with false. change (10 =? 10) with true. cbv iota.
    unfold is_blank in Hb. apply orb_false_elim in Hb as [H32 H9]. unfold is_break in Hk. apply orb_false_elim in Hk as [H10 H13].
    rewrite H32, H10, H13. unfold is_blank_or_breakz, is_blank, is_breakz, is_break, is_z. rewrite H32, H9, H10, H13, Hz. cbn [orb negb andb].
    replace (Z.of_nat 0 <=? indent)%Z with true by (symmetry; apply Z.leb_le; cbn; lia). rewrite orb_true_r. reflexivity.
  - cbn [ws_only forallb] in H. apply andb_prop in H as [Hc H]. fold (ws_only ws) in H.
    cbn [app after_break_ok]. apply orb_prop in Hc as [Hc|Hc]; apply N.eqb_eq in Hc; subst c.
    + change (10 =? 32) with false. change (10 =? 10) with true. cbv iota. apply IH, H.
    + change (32 =? 32) with true. cbv iota. apply IH, H.
Qed.

Lemma sib_drop_leading x r : sib_head x -> forall ws, ws_only ws = true ->
  exists ws2, ws_only ws2 = true /\ drop_leading (ws ++ 10 :: x :: r) = 10 :: ws2 ++ x :: r /\ (ws2 = [] \/ exists ws3, ws2 = ws3 ++ [10]).
Proof.
  intros Hx. induction ws as [|c ws IH]; intros H.
  - exists []. split; [reflexivity|]. split; [reflexivity|left; reflexivity].
  - cbn [ws_only forallb] in H. apply andb_prop in H as [Hc H]. fold (ws_only ws) in H.
    apply orb_prop in Hc as [Hc|Hc]; apply N.eqb_eq in Hc; subst c.
    + exists (ws ++ [10]). split; [unfold ws_only; rewrite forallb_app; fold (ws_only ws); rewrite H; reflexivity|].
      split; [cbn [app drop_leading]; change (is_sp 10) with false; cbv iota; rewrite <- app_assoc; reflexivity|right; eexists; reflexivity].
    + cbn [app drop_leading]. change (is_sp 32) with true. cbv iota. apply IH, H.
Qed.

Lemma sib_follower_ok indent ws x r : (0 <= indent)%Z -> sib_head x -> ws_only ws = true ->
  plain_follower_ok false indent (ws ++ 10 :: x :: r) = true.
Proof.
  intros Hi Hx Hws. unfold plain_follower_ok. destruct (sib_drop_leading x r Hx ws Hws) as (ws2 & Hws2 & -> & Hform).
  change (is_break 10) with true. cbv iota.
  destruct Hform as [-> | (ws3 & ->)].
  - exact (sib_after_break_ok indent x r Hi Hx [] O eq_refl).
  - rewrite <- app_assoc. cbn [app]. change (10 :: ws3 ++ 10 :: x :: r) with ((10 :: ws3) ++ 10 :: x :: r).
    apply (sib_after_break_ok indent x r Hi Hx).
    unfold ws_only in *. rewrite forallb_app in Hws2. apply andb_prop in Hws2 as [Hws3 _]. cbn [forallb]. rewrite Hws3. reflexivity.
Qed.

Section PlainSib.
Variable F : nat.
Variable s0 : sc strin.
Variable start : marker.
Variable L : nat.
Hypothesis HL : (128 <= L)%nat.
Variable n : nat.
Hypothesis Hfl : sc_flow_level s0 = 0.
Hypothesis Hind : (0 <= sc_indent s0)%Z.
Notation indent := (sc_indent s0 + 1)%Z.
Notation st := (st_with s0).
Notation pblanks := (plain_blanks str_ops F).
Notation achunk := (after_chunk F s0 start).
Variable x : N.
Variable r : list N.
Hypothesis Hx : sib_head x.
Notation sib := (x :: r).
Notation Wt := (fun w : bool => w = true).

Lemma sib_stop f acc endm fb lb tb ws m : m_col m = 0 ->
  Qr s0 sib Wt acc (bind (pblanks (S fb) indent start lb tb ws) (pafter_blanks indent (ploop F indent start f) acc endm) (st sib L m true)).
Proof.
  intros Hc. destruct Hx as (Hb & Hk & _).
  rewrite (bind_Ok _ _ _ _ _ (pb_stop F s0 start L fb lb tb ws sib m true Hb Hk)).
  rewrite (pafter_blanks_end s0 L HL n).
  - eexists; eexists; eexists; eexists. split; reflexivity.
  - rewrite Hfl. reflexivity.
  - rewrite Hc. cbn. lia.
Qed.

(* behind a line break *)
Lemma sib_break_run : forall ws fb f lb tb wsb m acc endm,
  ws_only ws = true -> (length ws + 1 < fb)%nat ->
  Qr s0 sib Wt acc (bind (pblanks fb indent start lb tb wsb) (pafter_blanks indent (ploop F indent start f) acc endm) (st (ws ++ 10 :: sib) L m true)).
Proof.
  induction ws as [|c ws IH]; intros fb f lb tb wsb m acc endm H Hfb; (destruct fb as [|fb]; [cbn in Hfb; lia|]).
  - cbn [app]. change (10 :: sib) with (nl_src NlLF ++ sib).
    rewrite (bind_congr _ _ _ _ _ (pb_nl_more F s0 start L HL NlLF fb lb tb wsb sib m ltac:(intros E; discriminate E))).
    destruct fb as [|fb]; [cbn in Hfb; lia|]. apply sib_stop. apply nl_mark_col.
  - cbn [ws_only forallb] in H. apply andb_prop in H as [Hc H]. fold (ws_only ws) in H. cbn [app].
    apply orb_prop in Hc as [Hc|Hc]; apply N.eqb_eq in Hc; subst c.
    + change (10 :: ws ++ 10 :: sib) with (nl_src NlLF ++ ws ++ 10 :: sib).
      rewrite (bind_congr _ _ _ _ _ (pb_nl_more F s0 start L HL NlLF fb lb tb wsb (ws ++ 10 :: sib) m ltac:(intros E; discriminate E))).
      apply IH; [exact H|cbn [length] in Hfb; lia].
    + rewrite (bind_congr _ _ _ _ _ (pb_blank_skip F s0 start L HL fb lb tb wsb 32 (ws ++ 10 :: sib) m eq_refl ltac:(discriminate))).
      apply IH; [exact H|cbn [length] in Hfb; lia].
Qed.

(* behind the last word *)
Lemma sib_line_run : forall ws fb f wsb m acc endm,
  ws_only ws = true -> (length ws + 1 < fb)%nat ->
  Qr s0 sib Wt acc (bind (pblanks fb indent start false 0 wsb) (pafter_blanks indent (ploop F indent start f) acc endm) (st (ws ++ 10 :: sib) L m false)).
Proof.
  induction ws as [|c ws IH]; intros fb f wsb m acc endm H Hfb; (destruct fb as [|fb]; [cbn in Hfb; lia|]).
  - cbn [app]. change (10 :: sib) with (nl_src NlLF ++ sib).
    rewrite (bind_congr _ _ _ _ _ (pb_nl_first F s0 start L HL NlLF fb false 0 wsb sib m ltac:(intros E; discriminate E))).
    destruct fb as [|fb]; [cbn in Hfb; lia|]. apply sib_stop. apply nl_mark_col.
  - cbn [ws_only forallb] in H. apply andb_prop in H as [Hc H]. fold (ws_only ws) in H. cbn [app].
    apply orb_prop in Hc as [Hc|Hc]; apply N.eqb_eq in Hc; subst c.
    + change (10 :: ws ++ 10 :: sib) with (nl_src NlLF ++ ws ++ 10 :: sib).
      rewrite (bind_congr _ _ _ _ _ (pb_nl_first F s0 start L HL NlLF fb false 0 wsb (ws ++ 10 :: sib) m ltac:(intros E; discriminate E))).
      apply sib_break_run; [exact H|cbn [length] in Hfb; lia].
    + rewrite (bind_congr _ _ _ _ _ (pb_blank_ws F s0 start L HL fb false 0 wsb 32 (ws ++ 10 :: sib) m eq_refl)).
      apply IH; [exact H|cbn [length] in Hfb; lia].
Qed.

Lemma sib_follower_run ws : ws_only ws = true ->
  forall f acc m, (length ws + S (S (length r)) + 2 <= F)%nat -> acc <> [] -> col_ok s0 m ->
    Qr s0 sib Wt acc (achunk (ploop F indent start (S f)) false 0 [] acc (st (ws ++ 10 :: sib) L m false)).
Proof.
  intros H f acc m HF Hacc Hm. rewrite after_chunk_st.
  rewrite (ptail_blanks F s0 start L HL n).
  2:{ destruct ws as [|c ws']; [reflexivity|]. cbn [ws_only forallb] in H. apply andb_prop in H as [Hc _]. cbn [app nth].
      apply orb_prop in Hc as [Hc|Hc]; apply N.eqb_eq in Hc; subst c; reflexivity. }
  apply sib_line_run; [exact H|]. lia.
Qed.
End PlainSib.

(* C04_plain_full for a sibling line behind the scalar, with the input that is left and the flags *)
Theorem scan_plain_scalar_sib :
  forall (F n : nat) (first : list N) (more : list (brk_layout * list N)) (ws : list N) (x : N) (r : list N) (s : sc strin),
    plain_layout_wf false n first more = true -> sc_flow_level s = 0 ->
    si_chars (sc_in s) = plain_render first more ++ ws ++ 10 :: x :: r ->
    ws_only ws = true -> sib_head x ->
    (0 <= eff_indent s)%Z ->
    (eff_indent s < Z.of_nat n)%Z ->
    (eff_indent s < Z.of_N (m_col (sc_mark s)))%Z ->
    (2 * length (si_chars (sc_in s)) + 10 <= F)%nat ->
    exists sp s',
      scan_plain_scalar str_ops F s = Ok ((sp, TScalar Plain (plain_text first more)), s')
      /\ sp_start sp = sc_mark s /\ si_chars (sc_in s') = x :: r /\ sc_lws s' = true /\ sc_ska s' = true.
Proof.
  intros F n first more ws x r s Hwf Hfl Hsrc Hws Hx Hi0 Hn Hcol HF.
  destruct (scan_plain_scalar_rem F n first more (ws ++ 10 :: x :: r) (x :: r) (fun w => w = true) s) as (sp & s' & w' & E & Hsp & Hin & HW & Hlw & Hska);
    try assumption.
  - rewrite Hfl. exact Hwf.
  - rewrite Hfl. apply sib_follower_ok; assumption.
  - intros s0 start L f acc m HL Hi Hf HF2 Hacc Hm.
    rewrite app_length in HF2. cbn [length] in HF2.
    apply (sib_follower_run F s0 start L HL n ltac:(rewrite Hf; exact Hfl) ltac:(rewrite Hi; exact Hi0) x r Hx ws Hws f acc m HF2 Hacc Hm).
  - intros _ Hc0. exfalso. rewrite Hc0 in Hcol. cbn in Hcol. lia.
  - exists sp, s'. subst w'. repeat split; try assumption. apply Hska. reflexivity.
Qed.
