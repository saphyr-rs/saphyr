(* The scanner never panics on the STRING input ([str_ops], Model/SBase.v): framework.

   On the string side the input operations are total ([lookahead] only raises the lookahead counter [si_look],
   [peek_nth] reads [nth n chars 0], [skip1]/[skip_n] drop characters, [raw_read_non_breakz] never pushes back), so
   the buffer-length bookkeeping of the buffered proof (ScanWP.v) disappears.  What remains:
     * [assert_buflen n site] (sites 103-107, the [debug_assert!(buflen >= n)] of the Input default methods): on the
       string side [buflen] is the lookahead counter [lk s := si_look (sc_in s)], which [look n] raises to >= n and
       which nothing lowers.  We carry a lower bound [k <= lk s] syntactically through the judgment [safe k m];
     * [skip_break] (site 110, [debug_assert!(is_break(c))]): the judgments [safeH P k m] (the next character
       satisfies [P]) and [safeQ k m P] ([m] establishes [P] of the next character);
     * the skeleton panics (111-118), handled by the walk of ScanSafeSkel.v read at [strin] (ScanSafeStrFetch.v);
       site 120 (u32 version accumulation) and 121 ([bufmaxlen < 2]) are local facts.

   [wps], [keeps], [SInv], ... are the definitions of ScanSkel.v stated at [strin], convertible with them; what does
   not depend on the input is proved there. *)
From Coq Require Import List NArith ZArith Bool Arith Lia.
Import ListNotations.
Require Import Parser SBase SPrim SDir SScalar SFetch.
Require ScanSkel.
Local Open Scope nat_scope.
Arguments Nat.ltb : simpl never.
Arguments Nat.leb : simpl never.
Arguments Nat.eqb : simpl never.
Arguments Nat.sub : simpl never.
Arguments Nat.max : simpl never.

Local Notation st := (sc strin).
Local Notation M := (@SBase.M strin).

Definition sops : InputOps strin := str_ops.
(* the lookahead counter (what [buflen] reports), the remaining characters, the next character *)
Definition lk (s : st) : nat := si_look (sc_in s).
Definition chars (s : st) : list chr := si_chars (sc_in s).
Definition c0 (s : st) : chr := nth 0 (chars s) 0%N.

(* never Panic; an error or exhausted fuel ends the run and is not a panic *)
Definition wps {A} (m : M A) (Q : A -> st -> Prop) (s : st) : Prop :=
  match m s with
  | Ok (a, s') => Q a s'
  | Err _ _ => True
  | OutOfFuel => True
  | Panic _ => False
  end.

Lemma ws_ret {A} (a : A) (Q : A -> st -> Prop) s : Q a s -> wps (ret a) Q s.
Proof. auto. Qed.
Lemma ws_bind {A B} (m : M A) (f : A -> M B) (Q : B -> st -> Prop) s :
  wps m (fun a s' => wps (f a) Q s') s -> wps (bind m f) Q s.
Proof. unfold wps, bind. destruct (m s) as [[a s']| | |]; auto. Qed.
Lemma ws_mono {A} (m : M A) (Q Q' : A -> st -> Prop) s :
  wps m Q s -> (forall a s', Q a s' -> Q' a s') -> wps m Q' s.
Proof. unfold wps. destruct (m s) as [[a s']| | |]; auto. Qed.
Lemma ws_fail {A} site mk (Q : A -> st -> Prop) s : wps (@fail strin A site mk) Q s.
Proof. exact I. Qed.
Lemma ws_oof {A} (Q : A -> st -> Prop) s : wps (@oof strin A) Q s.
Proof. exact I. Qed.
Lemma ws_get (Q : st -> st -> Prop) s : Q s s -> wps get Q s.
Proof. auto. Qed.
Lemma ws_gets {A} (f : st -> A) (Q : A -> st -> Prop) s : Q (f s) s -> wps (gets f) Q s.
Proof. auto. Qed.
Lemma ws_put s0 (Q : unit -> st -> Prop) s : Q tt s0 -> wps (put s0) Q s.
Proof. auto. Qed.
Lemma ws_modify f (Q : unit -> st -> Prop) s : Q tt (f s) -> wps (modify f) Q s.
Proof. auto. Qed.
(* a panic site is only acceptable where it is unreachable *)
Lemma ws_panic_absurd {A} site (Q : A -> st -> Prop) s : False -> wps (@panic strin A site) Q s.
Proof. tauto. Qed.
(* To pass between [wps] and the judgment of ScanSkel.v rewrite with this equation: a conversion check on
   [wps m Q s] for a concrete scanner function [m] would run [m]. *)
Lemma wps_skel : @wps = @ScanSkel.wp strin.
Proof. reflexivity. Qed.

(* input primitives: total on the string side *)
(* all fields other than the input are untouched by an input operation *)
Definition same_but_input (s s' : st) : Prop := s' = set_in (sc_in s') s.

Lemma ws_look n (Q : unit -> st -> Prop) s :
  (forall s', same_but_input s s' -> n <= lk s' -> lk s <= lk s' -> chars s' = chars s -> Q tt s') ->
  wps (look sops n) Q s.
Proof.
  intros HQ. unfold wps, look, sops. cbn [lookahead str_ops].
  apply HQ; unfold same_but_input, lk, chars; cbn; [reflexivity | lia | lia | reflexivity].
Qed.
Lemma ws_peekn_val n (Q : chr -> st -> Prop) s : Q (nth n (chars s) 0%N) s -> wps (peekn sops n) Q s.
Proof. intros HQ. exact HQ. Qed.
Lemma ws_peekn n (Q : chr -> st -> Prop) s : (forall c, Q c s) -> wps (peekn sops n) Q s.
Proof. intros HQ. apply ws_peekn_val, HQ. Qed.
Lemma ws_peek_val (Q : chr -> st -> Prop) s : Q (c0 s) s -> wps (SPrim.peek sops) Q s.
Proof. intros HQ. exact HQ. Qed.
Lemma ws_peek (Q : chr -> st -> Prop) s : (forall c, Q c s) -> wps (SPrim.peek sops) Q s.
Proof. intros HQ. apply ws_peek_val, HQ. Qed.
Lemma ws_in_skip (Q : unit -> st -> Prop) s :
  (forall s', same_but_input s s' -> lk s' = lk s -> chars s' = tl (chars s) -> Q tt s') -> wps (in_skip sops) Q s.
Proof.
  intros HQ. unfold wps, in_skip, modify, sops. cbn [skip1 str_ops].
  apply HQ; unfold same_but_input, lk, chars; cbn; reflexivity.
Qed.
Lemma ws_in_skip_n n (Q : unit -> st -> Prop) s :
  (forall s', same_but_input s s' -> lk s' = lk s -> chars s' = skipn n (chars s) -> Q tt s') ->
  wps (in_skip_n sops n) Q s.
Proof.
  intros HQ. unfold wps, in_skip_n, sops. cbn [skip_n str_ops].
  apply HQ; unfold same_but_input, lk, chars; cbn; reflexivity.
Qed.
(* raw_read_non_breakz stops in front of a break or at the end of the input (where [peek] reads NUL) *)
Lemma ws_raw_read (Q : option chr -> st -> Prop) s :
  (forall c s', same_but_input s s' -> lk s' = lk s -> (c = None -> is_breakz (c0 s') = true) -> Q c s') ->
  wps (raw_read sops) Q s.
Proof.
  intros HQ. unfold wps, raw_read, sops. cbn [raw_read_non_breakz str_ops].
  destruct (si_chars (sc_in s)) as [|c r] eqn:EC.
  - apply HQ; unfold same_but_input, lk, c0, chars; cbn; [destruct s; reflexivity|reflexivity|].
    intros _. rewrite EC. reflexivity.
  - destruct (is_breakz c) eqn:EB.
    + apply HQ; unfold same_but_input, lk, c0, chars; cbn; [destruct s; reflexivity|reflexivity|].
      intros _. rewrite EC. exact EB.
    + apply HQ; unfold same_but_input, lk; cbn; [reflexivity|reflexivity|discriminate].
Qed.
Lemma ws_buf_is_empty (Q : bool -> st -> Prop) s : Q (Nat.eqb (lk s) 0) s -> wps (buf_is_empty sops) Q s.
Proof. intros H. exact H. Qed.
(* the only input-side panic of the string back-end: the lookahead counter is below the asserted length *)
Lemma ws_assert_buflen n site (Q : unit -> st -> Prop) s : n <= lk s -> Q tt s -> wps (assert_buflen sops n site) Q s.
Proof.
  intros Hn HQ. unfold wps, assert_buflen, sops. cbn [buflen str_ops]. unfold lk in Hn.
  destruct (Nat.ltb _ n) eqn:E; [apply Nat.ltb_lt in E; lia|exact HQ].
Qed.

(* the skeleton: what the character-level scanners must leave alone *)
Definition keeps (s s' : st) : Prop :=
  sc_sks s' = sc_sks s /\ sc_flow_level s' = sc_flow_level s /\ sc_tokens s' = sc_tokens s
  /\ sc_tokens_parsed s' = sc_tokens_parsed s /\ sc_stream_start s' = sc_stream_start s
  /\ sc_stream_end s' = sc_stream_end s /\ sc_ifms s' = sc_ifms s
  /\ ((sc_indent s' = sc_indent s /\ sc_indents s' = sc_indents s)
      \/ (sc_indent s', sc_indents s') = unroll_nb (sc_indents s) (sc_indent s)).

Lemma keeps_refl s : keeps s s.
Proof. exact (ScanSkel.keeps_refl s). Qed.
Lemma keeps_trans s1 s2 s3 : keeps s1 s2 -> keeps s2 s3 -> keeps s1 s3.
Proof. exact (ScanSkel.keeps_trans s1 s2 s3). Qed.
Lemma keeps_input s s' : same_but_input s s' -> keeps s s'.
Proof. exact (ScanSkel.keeps_input s s'). Qed.

(* the skeleton invariant *)
Fixpoint sorted_from (top : Z) (l : list indent_rec) : Prop :=
  match l with
  | [] => top = (-1)%Z
  | i :: r => (in_indent i < top)%Z /\ sorted_from (in_indent i) r
  end.
Definition sk_in_range (s : st) (k : simple_key) : Prop :=
  sk_possible k = true ->
  (sc_tokens_parsed s <= sk_token_number k)%N
  /\ (sk_token_number k <= sc_tokens_parsed s + N.of_nat (length (sc_tokens s)))%N.

Definition SInv (s : st) : Prop :=
  (if sc_stream_start s then N.of_nat (length (sc_sks s)) = (sc_flow_level s + 1)%N
   else sc_sks s = [] /\ sc_flow_level s = 0%N)
  /\ sorted_from (sc_indent s) (sc_indents s)
  /\ Forall (sk_in_range s) (sc_sks s).

Lemma sorted_from_ge l : forall top, sorted_from top l -> (-1 <= top)%Z.
Proof. exact (ScanSkel.sorted_from_ge l). Qed.

(* K: skeleton kept and lookahead counter not lowered *)
Definition K (s s' : st) : Prop := keeps s s' /\ lk s <= lk s'.
Lemma K_refl s : K s s.
Proof. split; [apply keeps_refl|lia]. Qed.
Lemma K_trans s1 s2 s3 : K s1 s2 -> K s2 s3 -> K s1 s3.
Proof. intros [A1 A2] [B1 B2]. split; [eapply keeps_trans; eauto|lia]. Qed.
Lemma K_input s s' : same_but_input s s' -> lk s <= lk s' -> K s s'.
Proof. intros H L. split; [apply keeps_input, H|exact L]. Qed.

Ltac Ktriv := intros; split; [unfold keeps; cbn; repeat split; auto | unfold lk; cbn; lia].

(* mark primitives *)
Lemma ws_adv_mark n (Q : unit -> st -> Prop) s :
  (forall s', keeps s s' -> lk s' = lk s -> chars s' = chars s -> Q tt s') -> wps (adv_mark n) Q s.
Proof. intros HQ. unfold adv_mark. apply ws_modify. apply HQ; [unfold keeps; cbn; repeat split; auto|reflexivity|reflexivity]. Qed.
Lemma ws_mark (Q : marker -> st -> Prop) s : Q (sc_mark s) s -> wps mark Q s.
Proof. auto. Qed.
Lemma ws_skip_blank (Q : unit -> st -> Prop) s :
  (forall s', keeps s s' -> lk s' = lk s -> chars s' = tl (chars s) -> Q tt s') -> wps (skip_blank sops) Q s.
Proof.
  intros HQ. unfold skip_blank. apply ws_bind. apply ws_in_skip. intros s1 H1 L1 C1.
  apply ws_adv_mark. intros s2 K2 L2 C2. apply HQ; [|congruence|congruence].
  eapply keeps_trans; [apply keeps_input; exact H1|exact K2].
Qed.
Lemma ws_skip_non_blank (Q : unit -> st -> Prop) s :
  (forall s', keeps s s' -> lk s' = lk s -> Q tt s') -> wps (skip_non_blank sops) Q s.
Proof.
  intros HQ. unfold skip_non_blank. apply ws_bind. apply ws_in_skip. intros s1 H1 L1 _.
  apply ws_bind. apply ws_adv_mark. intros s2 K2 L2 _. apply ws_modify. apply HQ.
  - eapply keeps_trans; [apply keeps_input; exact H1|]. eapply keeps_trans; [exact K2|].
    unfold keeps; cbn; repeat split; auto.
  - unfold lk in *; cbn; congruence.
Qed.
Lemma ws_skip_n_non_blank n (Q : unit -> st -> Prop) s :
  (forall s', keeps s s' -> lk s' = lk s -> Q tt s') -> wps (skip_n_non_blank sops n) Q s.
Proof.
  intros HQ. unfold skip_n_non_blank. apply ws_bind. apply ws_in_skip_n. intros s1 H1 L1 _.
  apply ws_bind. apply ws_adv_mark. intros s2 K2 L2 _. apply ws_modify. apply HQ.
  - eapply keeps_trans; [apply keeps_input; exact H1|]. eapply keeps_trans; [exact K2|].
    unfold keeps; cbn; repeat split; auto.
  - unfold lk in *; cbn; congruence.
Qed.
Lemma ws_skip_nl (Q : unit -> st -> Prop) s :
  (forall s', keeps s s' -> lk s' = lk s -> Q tt s') -> wps (skip_nl sops) Q s.
Proof.
  intros HQ. unfold skip_nl. apply ws_bind. apply ws_in_skip. intros s1 H1 L1 _.
  apply ws_modify. apply HQ.
  - eapply keeps_trans; [apply keeps_input; exact H1|]. unfold keeps; cbn; repeat split; auto.
  - unfold lk in *; cbn; congruence.
Qed.

(* ================= the judgment [safe k m] =================
   from any state whose lookahead counter is at least [k], [m] does not panic, leaves the skeleton alone and does
   not lower the lookahead counter.  It is closed under the monad structure, so character-level functions are
   handled by structural recursion on their code. *)
Definition safe (k : nat) {A} (m : M A) : Prop := forall s, k <= lk s -> wps m (fun _ s' => K s s') s.

Lemma safe_weaken k k' {A} (m : M A) : k' <= k -> safe k' m -> safe k m.
Proof. intros H Hm s Hk. apply Hm. lia. Qed.
Lemma safe_ret k {A} (a : A) : safe k (ret a).
Proof. intros s _. apply ws_ret, K_refl. Qed.
Lemma safe_fail k {A} site mk : safe k (@fail strin A site mk).
Proof. intros s _. exact I. Qed.
Lemma safe_oof k {A} : safe k (@oof strin A).
Proof. intros s _. exact I. Qed.
Lemma safe_panic_absurd k {A} site : False -> safe k (@panic strin A site).
Proof. tauto. Qed.
Lemma safe_get k : safe k (@get strin).
Proof. intros s _. apply ws_get, K_refl. Qed.
Lemma safe_gets k {A} (f : st -> A) : safe k (gets f).
Proof. intros s _. apply ws_gets, K_refl. Qed.
Lemma safe_modify k f : (forall s, K s (f s)) -> safe k (modify f).
Proof. intros H s _. apply ws_modify, H. Qed.
Lemma safe_bind k {A B} (m : M A) (f : A -> M B) : safe k m -> (forall a, safe k (f a)) -> safe k (bind m f).
Proof.
  intros Hm Hf s Hk. apply ws_bind. eapply ws_mono; [apply Hm, Hk|]. intros a s1 K1. cbv beta.
  eapply ws_mono; [apply (Hf a s1); destruct K1; lia|]. intros b s2 K2. cbv beta. exact (K_trans _ _ _ K1 K2).
Qed.
Lemma safe_look k n : safe k (look sops n).
Proof. intros s _. apply ws_look. intros s' H _ L _. apply K_input; assumption. Qed.
(* [look n] raises the lower bound for what follows *)
Lemma safe_look_bind k n {B} (f : unit -> M B) : (forall u, safe (Nat.max k n) (f u)) -> safe k (bind (look sops n) f).
Proof.
  intros Hf s Hk. apply ws_bind. apply ws_look. intros s1 H1 L1 L2 _.
  eapply ws_mono; [apply (Hf tt s1); lia|]. intros b s2 K2. cbv beta.
  eapply K_trans; [apply K_input; eassumption|exact K2].
Qed.
Lemma safe_peekn k n : safe k (peekn sops n).
Proof. intros s _. apply ws_peekn. intros c. apply K_refl. Qed.
Lemma safe_peek k : safe k (SPrim.peek sops).
Proof. apply safe_peekn. Qed.
Lemma safe_look_ch k : safe k (look_ch sops).
Proof. unfold look_ch. apply safe_bind; [apply safe_look|intros _; apply safe_peek]. Qed.
Lemma safe_in_skip k : safe k (in_skip sops).
Proof. intros s _. apply ws_in_skip. intros s' H L _. apply K_input; [exact H|lia]. Qed.
Lemma safe_in_skip_n k n : safe k (in_skip_n sops n).
Proof. intros s _. apply ws_in_skip_n. intros s' H L _. apply K_input; [exact H|lia]. Qed.
Lemma safe_raw_read k : safe k (raw_read sops).
Proof. intros s _. apply ws_raw_read. intros c s' H L _. apply K_input; [exact H|lia]. Qed.
Lemma safe_buf_is_empty k : safe k (buf_is_empty sops).
Proof. apply safe_gets. Qed.
Lemma safe_assert_buflen k n site : n <= k -> safe k (assert_buflen sops n site).
Proof. intros H s Hk. apply ws_assert_buflen; [lia|apply K_refl]. Qed.
Lemma safe_mark k : safe k (@mark strin).
Proof. apply safe_gets. Qed.
Lemma safe_adv_mark k n : safe k (@adv_mark strin n).
Proof. intros s _. apply ws_adv_mark. intros s' H L _. split; [exact H|lia]. Qed.
Lemma safe_skip_blank k : safe k (skip_blank sops).
Proof. intros s _. apply ws_skip_blank. intros s' H L _. split; [exact H|lia]. Qed.
Lemma safe_skip_non_blank k : safe k (skip_non_blank sops).
Proof. intros s _. apply ws_skip_non_blank. intros s' H L. split; [exact H|lia]. Qed.
Lemma safe_skip_n_non_blank k n : safe k (skip_n_non_blank sops n).
Proof. intros s _. apply ws_skip_n_non_blank. intros s' H L. split; [exact H|lia]. Qed.
Lemma safe_skip_nl k : safe k (skip_nl sops).
Proof. intros s _. apply ws_skip_nl. intros s' H L. split; [exact H|lia]. Qed.
Lemma safe_allow k : safe k (@allow_simple_key strin).
Proof. apply safe_modify. Ktriv. Qed.
Lemma safe_disallow k : safe k (@disallow_simple_key strin).
Proof. apply safe_modify. Ktriv. Qed.
Lemma safe_set_lws k b : safe k (modify (@set_lws strin b)).
Proof. apply safe_modify. Ktriv. Qed.
Lemma safe_flow_level k : safe k (@flow_level strin).
Proof. apply safe_gets. Qed.
Lemma safe_in_flow k : safe k (@in_flow strin).
Proof. unfold in_flow. apply safe_bind; [apply safe_flow_level|intros; apply safe_ret]. Qed.
Lemma safe_is_within_block k : safe k (@is_within_block strin).
Proof. apply safe_gets. Qed.
Lemma safe_col_lt_indent k : safe k (@col_lt_indent strin).
Proof. apply safe_gets. Qed.
Lemma safe_col k : safe k (@col strin).
Proof. apply safe_gets. Qed.
Lemma safe_unroll_non_block_indents k : safe k (@unroll_non_block_indents strin).
Proof.
  apply safe_modify. intros s. split; [|destruct (unroll_nb _ _); unfold lk; cbn; lia].
  unfold keeps. destruct (unroll_nb (sc_indents s) (sc_indent s)) as [ind l] eqn:E. cbn.
  repeat split; auto.
Qed.

(* Input default methods *)
Lemma safe_next_char_is k c : safe k (next_char_is sops c).
Proof. unfold next_char_is. apply safe_bind; [apply safe_peek|intros; apply safe_ret]. Qed.
Lemma safe_nth_char_is k n c : safe k (nth_char_is sops n c).
Proof. unfold nth_char_is. apply safe_bind; [apply safe_peekn|intros; apply safe_ret]. Qed.
Lemma safe_next_is k p : safe k (next_is sops p).
Proof. unfold next_is. apply safe_bind; [apply safe_peek|intros; apply safe_ret]. Qed.
Lemma safe_next_2_are k a b : 2 <= k -> safe k (next_2_are sops a b).
Proof.
  intros H. unfold next_2_are. apply safe_bind; [apply safe_assert_buflen, H|intros _].
  apply safe_bind; [apply safe_peek|intros x]. apply safe_bind; [apply safe_peekn|intros y]. apply safe_ret.
Qed.
Lemma safe_next_3_are k a b c : 3 <= k -> safe k (next_3_are sops a b c).
Proof.
  intros H. unfold next_3_are. apply safe_bind; [apply safe_assert_buflen, H|intros _].
  apply safe_bind; [apply safe_peek|intros x]. apply safe_bind; [apply safe_peekn|intros y].
  apply safe_bind; [apply safe_peekn|intros z]. apply safe_ret.
Qed.
Lemma safe_next_is_document_indicator k : 4 <= k -> safe k (next_is_document_indicator sops).
Proof.
  intros H. unfold next_is_document_indicator. apply safe_bind; [apply safe_assert_buflen, H|intros _].
  apply safe_bind; [apply safe_peekn|intros c3]. destruct (is_blank_or_breakz c3); [|apply safe_ret].
  apply safe_bind; [apply safe_next_3_are; lia|intros d]. destruct d; [apply safe_ret|apply safe_next_3_are; lia].
Qed.
Lemma safe_next_can_be_plain_scalar k fl : safe k (next_can_be_plain_scalar sops fl).
Proof.
  unfold next_can_be_plain_scalar. apply safe_bind; [apply safe_peekn|intros nc].
  apply safe_bind; [apply safe_peek|intros c].
  destruct ((c =? 58)%N && (is_blank_or_breakz nc || fl && is_flow nc)); [apply safe_ret|].
  destruct (fl && is_flow c); apply safe_ret.
Qed.
Lemma safe_skip_linebreak k : 2 <= k -> safe k (skip_linebreak sops).
Proof.
  intros H. unfold skip_linebreak. apply safe_bind; [apply safe_next_2_are, H|intros crlf]. destruct crlf.
  - apply safe_bind; [apply safe_skip_blank|intros _; apply safe_skip_nl].
  - apply safe_bind; [apply safe_peek|intros c]. destruct (is_break c); [apply safe_skip_nl|apply safe_ret].
Qed.

(* [safeH P k m]: additionally the next character satisfies [P] *)
Definition safeH (P : chr -> Prop) (k : nat) {A} (m : M A) : Prop :=
  forall s, P (c0 s) -> k <= lk s -> wps m (fun _ s' => K s s') s.
(* [m] is safe and the next character satisfies [P] afterwards *)
Definition safeQ (k : nat) {A} (m : M A) (P : chr -> Prop) : Prop :=
  forall s, k <= lk s -> wps m (fun _ s' => K s s' /\ P (c0 s')) s.

Lemma safeH_weak (P : chr -> Prop) k {A} (m : M A) : safe k m -> safeH P k m.
Proof. intros H s _ Hk. apply H, Hk. Qed.
Lemma safe_peek_bind_val k {B} (f : chr -> M B) : (forall c, safeH (eq c) k (f c)) -> safe k (bind (SPrim.peek sops) f).
Proof. intros H s Hk. apply ws_bind, ws_peek_val. apply (H (c0 s) s eq_refl Hk). Qed.
Lemma safeH_peek_bind (P : chr -> Prop) k {B} (f : chr -> M B) :
  (forall c, P c -> safeH (eq c) k (f c)) -> safeH P k (bind (SPrim.peek sops) f).
Proof. intros H s HP Hk. apply ws_bind, ws_peek_val. apply (H (c0 s) HP s eq_refl Hk). Qed.
Lemma safe_next_is_bind_val k p {B} (f : bool -> M B) :
  (forall c, safeH (eq c) k (f (p c))) -> safe k (bind (next_is sops p) f).
Proof.
  intros H s Hk. apply ws_bind. unfold next_is. apply ws_bind, ws_peek_val. apply ws_ret.
  apply (H (c0 s) s eq_refl Hk).
Qed.
Lemma safeH_next_is_bind (P : chr -> Prop) k p {B} (f : bool -> M B) :
  (forall c, P c -> safeH (eq c) k (f (p c))) -> safeH P k (bind (next_is sops p) f).
Proof.
  intros H s HP Hk. apply ws_bind. unfold next_is. apply ws_bind, ws_peek_val. apply ws_ret.
  apply (H (c0 s) HP s eq_refl Hk).
Qed.
Lemma safeH_look_bind (P : chr -> Prop) k n {B} (f : unit -> M B) :
  (forall u, safeH P (Nat.max k n) (f u)) -> safeH P k (bind (look sops n) f).
Proof.
  intros Hf s HP Hk. apply ws_bind. apply ws_look. intros s1 H1 L1 L2 C1.
  eapply ws_mono; [apply (Hf tt s1); [unfold c0 in *; rewrite C1; exact HP|lia]|]. intros b s2 K2. cbv beta.
  eapply K_trans; [apply K_input; eassumption|exact K2].
Qed.
Lemma safeH_get_bind (P : chr -> Prop) k {B} (f : st -> M B) : (forall s, safeH P k (f s)) -> safeH P k (bind get f).
Proof. intros Hf s HP Hk. apply ws_bind, ws_get. apply Hf; assumption. Qed.
Lemma safeH_bind (P : chr -> Prop) k {A B} (m : M A) (f : A -> M B) : safeH P k m -> (forall a, safe k (f a)) -> safeH P k (bind m f).
Proof.
  intros Hm Hf s HP Hk. apply ws_bind. eapply ws_mono; [apply Hm; assumption|]. intros a s1 K1. cbv beta.
  eapply ws_mono; [apply (Hf a s1); destruct K1; lia|]. intros b s2 K2. cbv beta. exact (K_trans _ _ _ K1 K2).
Qed.
Lemma safeH_if (P : chr -> Prop) k {A} (b : bool) (m1 m2 : M A) : safeH P k m1 -> safeH P k m2 -> safeH P k (if b then m1 else m2).
Proof. destruct b; auto. Qed.
(* site 110: skip_break is only called in front of a break *)
Lemma safeH_skip_break (P : chr -> Prop) k : (forall c, P c -> is_break c = true) -> safeH P k (skip_break sops).
Proof.
  intros HB s HP Hk. unfold skip_break.
  apply ws_bind, ws_peek_val. apply ws_bind, ws_peekn. intros nc.
  rewrite (HB _ HP). apply ws_bind, ws_ret.
  destruct ((c0 s =? 13)%N && (nc =? 10)%N).
  - apply ws_bind. eapply ws_mono; [apply (safe_skip_blank k s Hk)|]. intros u1 s1 K1. cbv beta in K1 |- *.
    eapply ws_mono; [apply (safe_skip_nl k s1); destruct K1; lia|]. intros u2 s2 K2. cbv beta in K2 |- *. exact (K_trans _ _ _ K1 K2).
  - apply ws_bind, ws_ret. apply (safe_skip_nl k s Hk).
Qed.
Lemma safeQ_bind k {A B} (m : M A) (f : A -> M B) (P : chr -> Prop) : safeQ k m P -> (forall a, safeH P k (f a)) -> safe k (bind m f).
Proof.
  intros Hm Hf s Hk. apply ws_bind. eapply ws_mono; [apply Hm, Hk|]. intros a s1 [K1 P1]. cbv beta.
  eapply ws_mono; [apply (Hf a s1); [exact P1|destruct K1; lia]|]. intros b s2 K2. cbv beta. exact (K_trans _ _ _ K1 K2).
Qed.
(* back from a judgment to a wps goal *)
Lemma safe_run k {A} (m : M A) s0 s : safe k m -> K s0 s -> k <= lk s -> wps m (fun _ s' => K s0 s') s.
Proof. intros H K0 Hk. eapply ws_mono; [apply H, Hk|]. intros a s' K1. eapply K_trans; eauto. Qed.

(* automation *)
Create HintDb safedb.
#[export] Hint Resolve safe_ret safe_fail safe_oof safe_get safe_gets safe_look safe_peekn safe_peek safe_look_ch
  safe_in_skip safe_in_skip_n safe_raw_read safe_buf_is_empty safe_mark safe_adv_mark safe_skip_blank
  safe_skip_non_blank safe_skip_n_non_blank safe_skip_nl safe_allow safe_disallow safe_set_lws safe_flow_level
  safe_in_flow safe_is_within_block safe_col_lt_indent safe_col safe_unroll_non_block_indents
  safe_next_char_is safe_nth_char_is safe_next_is safe_next_can_be_plain_scalar : safedb.
#[export] Hint Extern 2 (safe _ (next_2_are sops _ _)) => apply safe_next_2_are; lia : safedb.
#[export] Hint Extern 2 (safe _ (next_3_are sops _ _ _)) => apply safe_next_3_are; lia : safedb.
#[export] Hint Extern 2 (safe _ (next_is_document_indicator sops)) => apply safe_next_is_document_indicator; lia : safedb.
#[export] Hint Extern 2 (safe _ (skip_linebreak sops)) => apply safe_skip_linebreak; lia : safedb.
#[export] Hint Extern 2 (safe _ (assert_buflen sops _ _)) => apply safe_assert_buflen; lia : safedb.

(* one structural step on a [safe] goal *)
Ltac sstep :=
  cbv beta zeta;
  lazymatch goal with
  | |- safe _ (bind (look sops _) _) => apply safe_look_bind; intros ?
  | |- safe _ (bind _ _) => apply safe_bind; [|intros ?]
  | |- safe _ (if ?b then _ else _) => destruct b
  | |- safe _ (match ?x with _ => _ end) => destruct x
  | |- safe _ _ => solve [eauto 2 with safedb]
  end.
Ltac sgo := repeat sstep.

(* one step on a [safeH] goal: keep the knowledge about the next character as long as it may be needed *)
Ltac hstep :=
  cbv beta zeta;
  lazymatch goal with
  | |- safeH _ _ (bind (look sops _) _) => apply safeH_look_bind; intros ?
  | |- safeH _ _ (bind get _) => apply safeH_get_bind; intros ?
  | |- safeH _ _ (bind (skip_break sops) _) =>
      apply safeH_bind; [apply safeH_skip_break; intros ? <-; assumption|intros ?]
  | |- safeH _ _ (skip_break sops) => apply safeH_skip_break; intros ? <-; assumption
  | |- safeH _ _ (bind (if _ then _ else _) _) => apply safeH_bind; [|intros ?]
  | |- safeH _ _ (if ?b then _ else _) => destruct b eqn:?
  | |- safeH _ _ _ => apply safeH_weak
  end.
Ltac hgo := repeat hstep; sgo.
