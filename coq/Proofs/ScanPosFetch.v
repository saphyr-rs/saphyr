(* Joint proof "every position the scanner reports is a true position" (see SCANPOS.md): the token-level skeleton
   (fetch_*, fetch_next_token, fetch_more_tokens, next_token, scan_all) over the string input.
   Invariant [PInv]: the mark is the true position of what has been consumed ([MarkOK]) - or, once the end of a
   NUL-free input has been seen, the input is exhausted and the mark's index is the input length ([Ended]: what
   fetch_stream_end leaves behind when it forces the mark to (index, line+1, 0)) -; every queued token has a span of
   true marks; every POSSIBLE simple key carries a true mark. *)
From Coq Require Import List NArith ZArith Bool Arith Lia.
Import ListNotations.
Require Import Parser SBase SPrim SDir SScalar SFetch DispatchTie Positions ScanPos ScanPosPrim.
Local Open Scope nat_scope.

Arguments Nat.ltb : simpl never.
Arguments Nat.leb : simpl never.
Arguments Nat.eqb : simpl never.
Arguments Nat.sub : simpl never.

Ltac sproj :=
  cbn [sc_in sc_mark sc_tokens sc_stream_start sc_stream_end sc_adjacent sc_ska sc_sks sc_indent sc_indents
       sc_flow_level sc_tokens_parsed sc_token_available sc_lws sc_ifms
       set_in set_mark set_tokens set_flags set_ska set_lws set_adj set_ta set_ss set_se
       set_struct set_sks set_indent set_fl set_tp set_ifms upd].
Ltac sproj_in H :=
  cbn [sc_in sc_mark sc_tokens sc_stream_start sc_stream_end sc_adjacent sc_ska sc_sks sc_indent sc_indents
       sc_flow_level sc_tokens_parsed sc_token_available sc_lws sc_ifms
       set_in set_mark set_tokens set_flags set_ska set_lws set_adj set_ta set_ss set_se
       set_struct set_sks set_indent set_fl set_tp set_ifms upd] in H.

(* pure list facts *)
Lemma insert_at_Forall {A} (P : A -> Prop) (x : A) : forall n l l',
  insert_at n x l = Some l' -> P x -> Forall P l -> Forall P l'.
Proof.
  induction n as [|n IH]; intros l l' E Hx Hl; cbn [insert_at] in E.
  - injection E as <-. constructor; assumption.
  - destruct l as [|y r]; [discriminate E|]. destruct (insert_at n x r) as [r'|] eqn:E'; [|discriminate E].
    injection E as <-. inversion Hl; subst. constructor; [assumption|]. eapply IH; eauto.
Qed.
Lemma last_In {A} (l : list A) (d : A) : l <> [] -> In (last l d) l.
Proof.
  induction l as [|a l IH]; intros H; [congruence|]. destruct l as [|b l]; [left; reflexivity|].
  right. apply IH. discriminate.
Qed.
Lemma Forall_tl {A} (P : A -> Prop) (l : list A) : Forall P l -> Forall P (tl l).
Proof. intros H. destruct l; [constructor|inversion H; assumption]. Qed.

(* the position part of the state: input and mark *)
Definition same_pos (s s' : sst) : Prop := sc_in s' = sc_in s /\ sc_mark s' = sc_mark s.
Lemma same_pos_refl s : same_pos s s. Proof. split; reflexivity. Qed.
Lemma same_pos_trans a b c : same_pos a b -> same_pos b c -> same_pos a c.
Proof. intros [A1 A2] [B1 B2]. split; congruence. Qed.
Lemma same_pos_rem s s' : same_pos s s' -> rem s' = rem s.
Proof. intros [A _]. unfold rem. rewrite A. reflexivity. Qed.
Lemma same_pos_rnth s s' i : same_pos s s' -> rnth s' i = rnth s i.
Proof. intros H. apply rnth_eq. apply same_pos_rem. exact H. Qed.

Section PosFetch.
Variable orig : list chr.
Hypothesis no_nul : Forall (fun c => c <> 0%N) orig.
Notation pwp := (swp (true_mark orig)).
Notation MarkAt := (MarkAt orig).
Notation MarkOK := (MarkOK orig).
Notation tmark := (true_mark orig).
Notation ttok := (true_tok orig).

(* the character-level contracts not proved in ScanPosPrim.v (SCANPOS.md) *)
Hypothesis H_dir : forall F s, MarkOK s -> is_breakz (rnth s 0) = false -> pwp (scan_directive str_ops F) (ppost orig s) s.
Hypothesis H_tag : forall F s, MarkOK s -> rnth s 0 = 33%N -> pwp (scan_tag str_ops F) (ppost orig s) s.
Hypothesis H_anchor : forall F alias s, MarkOK s -> is_breakz (rnth s 0) = false -> pwp (scan_anchor str_ops F alias) (ppost orig s) s.
Hypothesis H_flow : forall F single s, MarkOK s -> is_breakz (rnth s 0) = false -> pwp (scan_flow_scalar str_ops F single) (ppost orig s) s.
Hypothesis H_plain : forall F s, MarkOK s -> pwp (scan_plain_scalar str_ops F) (ppost orig s) s.
Hypothesis H_block : forall F literal s, MarkOK s -> is_breakz (rnth s 0) = false -> pwp (scan_block_scalar str_ops F literal) (ppost orig s) s.

(* the invariant *)
(* the end of the input has been reached: nothing remains and the index is the input length.  This is all that is
   left of the position invariant after fetch_stream_end has forced the mark to (index, line + 1, 0). *)
Definition Ended (s : sst) : Prop := rem s = [] /\ m_index (sc_mark s) = N.of_nat (length orig).
Definition Mark' (s : sst) : Prop := MarkOK s \/ Ended s.

Definition sk_ok (k : simple_key) : Prop := sk_possible k = true -> tmark (sk_mark k).
(* the queue part: token spans and the marks of possible simple keys *)
Definition QInv (s : sst) : Prop := Forall ttok (sc_tokens s) /\ Forall sk_ok (sc_sks s).
Definition PInv (s : sst) : Prop := Mark' s /\ QInv s.

Lemma ended_true s : Ended s -> tmark (sc_mark s).
Proof using.
  intros [_ I]. unfold true_mark, marker_ok. rewrite I. rewrite N.leb_refl, N.eqb_refl. reflexivity.
Qed.
Lemma mark'_true s : Mark' s -> tmark (sc_mark s).
Proof using. intros [H|H]; [apply markok_true; exact H|apply ended_true; exact H]. Qed.

Lemma markat_same pre s s' : MarkAt pre s -> same_pos s s' -> MarkAt pre s'.
Proof using no_nul. intros HM [A B]. apply (markat_ext orig no_nul pre s s' HM); [unfold rem; rewrite A; reflexivity|exact B]. Qed.
Lemma markok_same s s' : MarkOK s -> same_pos s s' -> MarkOK s'.
Proof using no_nul. intros [pre HM] H. exists pre. eapply markat_same; eauto. Qed.
Lemma ended_ext s s' : Ended s -> rem s' = rem s -> m_index (sc_mark s') = m_index (sc_mark s) -> Ended s'.
Proof using. intros [A B] R I. split; congruence. Qed.
Lemma mark'_ext s s' : Mark' s -> rem s' = rem s -> sc_mark s' = sc_mark s -> Mark' s'.
Proof using no_nul.
  intros [H|H] R Mk; [left; eapply markok_ext; eauto|right; eapply ended_ext; eauto; rewrite Mk; reflexivity].
Qed.
Lemma mark'_same s s' : Mark' s -> same_pos s s' -> Mark' s'.
Proof using no_nul. intros H SP. apply (mark'_ext s s' H); [apply same_pos_rem; exact SP|apply SP]. Qed.

(* the end of a NUL-free input: a NUL at offset 0 *)
Lemma markat_z_ended pre s : MarkAt pre s -> rnth s 0 = 0%N -> Ended s.
Proof using no_nul.
  intros HM Hz. pose proof (peek_z_is_end orig no_nul pre s 0 HM Hz) as L.
  destruct HM as (E & I & _). assert (R : rem s = []) by (destruct (rem s); [reflexivity|cbn [length] in L; lia]).
  split; [exact R|]. rewrite I, E, R, app_nil_r. reflexivity.
Qed.
Lemma ended_rnth s i : Ended s -> rnth s i = 0%N.
Proof using. intros [R _]. unfold rnth. rewrite R. destruct i; reflexivity. Qed.

Lemma qinv_pkeeps s s' : pkeeps s s' -> QInv s -> QInv s'.
Proof using. intros (A & B & _) [T K]. unfold QInv. rewrite A, B. split; assumption. Qed.
Lemma qinv_eq s s' : sc_tokens s' = sc_tokens s -> sc_sks s' = sc_sks s -> QInv s -> QInv s'.
Proof using. intros A B [T K]. unfold QInv. rewrite A, B. split; assumption. Qed.
Lemma qinv_push s t : QInv s -> ttok t -> QInv (set_tokens (sc_tokens s ++ [t]) s).
Proof using.
  intros [T K] Ht. split; sproj; [|exact K]. apply Forall_app. split; [exact T|]. constructor; [exact Ht|constructor].
Qed.
Lemma ttok_empty m tk : tmark m -> ttok (span_empty m, tk).
Proof using. intros H. split; exact H. Qed.
Lemma ttok_spn a b tk : tmark a -> tmark b -> ttok (spn a b, tk).
Proof using. intros A B. split; assumption. Qed.

Definition clr (k : simple_key) : simple_key :=
  {| sk_possible := false; sk_required := sk_required k; sk_token_number := sk_token_number k; sk_mark := sk_mark k |}.
Lemma sk_ok_clr k : sk_ok (clr k).
Proof using. intros H. discriminate H. Qed.
Lemma sk_ok_new r n m : sk_ok {| sk_possible := false; sk_required := r; sk_token_number := n; sk_mark := m |}.
Proof using. intros H. discriminate H. Qed.

(* skeleton steps: they touch neither the input nor the mark *)
Definition pstep_at (s : sst) (m : SM unit) : Prop :=
  forall (Q : unit -> sst -> Prop), tmark (sc_mark s) -> QInv s ->
    (forall s', same_pos s s' -> QInv s' -> Q tt s') -> pwp m Q s.
Definition pstep (m : SM unit) : Prop := forall s, pstep_at s m.

Lemma ps_ret : pstep (ret tt).
Proof using. intros s Q HT HQI HQ. apply swp_ret. apply HQ; [apply same_pos_refl|exact HQI]. Qed.
Lemma ps_fail_at s site mk : tmark mk -> pstep_at s (fail site mk).
Proof using. intros H Q HT HQI HQ. apply swp_fail. exact H. Qed.
Lemma ps_fail site mk : tmark mk -> pstep (fail site mk).
Proof using. intros H s. apply ps_fail_at. exact H. Qed.
Lemma ps_panic site : pstep (panic site).
Proof using. intros s Q HT HQI HQ. apply swp_panic. Qed.
Lemma ps_if (b : bool) m1 m2 : pstep m1 -> pstep m2 -> pstep (if b then m1 else m2).
Proof using. destruct b; auto. Qed.
Lemma ps_if_at s (b : bool) m1 m2 : pstep_at s m1 -> pstep_at s m2 -> pstep_at s (if b then m1 else m2).
Proof using. destruct b; auto. Qed.
Lemma ps_bind_at s m1 m2 : pstep_at s m1 -> pstep m2 -> pstep_at s (bind m1 (fun _ => m2)).
Proof using.
  intros H1 H2 Q HT HQI HQ. apply swp_bind. apply H1; [exact HT|exact HQI|]. intros s1 SP1 QI1.
  apply H2; [destruct SP1 as [_ ->]; exact HT|exact QI1|]. intros s2 SP2 QI2. apply HQ; [eapply same_pos_trans; eauto|exact QI2].
Qed.
Lemma ps_bind m1 m2 : pstep m1 -> pstep m2 -> pstep (bind m1 (fun _ => m2)).
Proof using. intros H1 H2 s. apply ps_bind_at; auto. Qed.
(* [get]: the continuation is run in the very state it receives *)
Lemma ps_get f : (forall s0, tmark (sc_mark s0) -> QInv s0 -> pstep_at s0 (f s0)) -> pstep (bind get f).
Proof using. intros H s Q HT HQI HQ. apply swp_bind, swp_get. apply H; assumption. Qed.
Lemma ps_mark f : (forall m, tmark m -> pstep (f m)) -> pstep (bind mark f).
Proof using. intros H s Q HT HQI HQ. apply swp_bind. unfold mark. apply swp_gets. apply H; assumption. Qed.
Lemma ps_put_at s s1 : same_pos s s1 -> (QInv s -> QInv s1) -> pstep_at s (put s1).
Proof using. intros SP HI Q HT HQI HQ. apply swp_put. apply HQ; [exact SP|apply HI; exact HQI]. Qed.
Lemma ps_modify f : (forall s, same_pos s (f s) /\ sc_tokens (f s) = sc_tokens s /\ sc_sks (f s) = sc_sks s) -> pstep (modify f).
Proof using.
  intros H s Q HT HQI HQ. apply swp_modify. destruct (H s) as (A & B & C). apply HQ; [exact A|eapply qinv_eq; eauto].
Qed.
Lemma ps_lift m s : pstep m -> pstep_at s m.
Proof using. intros H. apply H. Qed.

Ltac pos_triv :=
  cbv beta; repeat match goal with |- context [if ?b then _ else _] => destruct b end;
  repeat match goal with |- context [match sc_ifms ?s with _ => _ end] => destruct (sc_ifms s) as [|[| | |] ?] end;
  unfold same_pos; sproj; repeat split; reflexivity.

Lemma ps_push_tok t : ttok t -> pstep (push_tok t).
Proof using.
  intros Ht s Q HT HQI HQ. unfold push_tok. apply swp_modify. apply HQ; [split; reflexivity|apply qinv_push; assumption].
Qed.
Lemma ps_insert_token pos t : ttok t -> pstep (insert_token pos t).
Proof using.
  intros Ht s Q HT HQI HQ. unfold swp, insert_token. destruct (insert_at (N.to_nat pos) t (sc_tokens s)) as [l|] eqn:E; [|exact I].
  apply HQ; [split; reflexivity|]. destruct HQI as [T K]. split; sproj; [|exact K]. eapply insert_at_Forall; eauto.
Qed.
Lemma ps_allow : pstep (allow_simple_key (I:=strin)).
Proof using. unfold allow_simple_key. apply ps_modify. intros s. pos_triv. Qed.
Lemma ps_disallow : pstep (disallow_simple_key (I:=strin)).
Proof using. unfold disallow_simple_key. apply ps_modify. intros s. pos_triv. Qed.

(* indentation: BlockSequenceStart / BlockMappingStart / BlockEnd tokens carry the marker given, resp. the current
   mark *)
Lemma ps_roll_indent col number tk mk : tmark mk -> pstep (roll_indent col number tk mk).
Proof using.
  intros Hm. unfold roll_indent. apply ps_get. intros s HT HQI.
  apply ps_if_at; [apply ps_lift, ps_ret|].
  match goal with |- pstep_at _ (let '(_, _) := ?p in _) => destruct p as [ind inds] end.
  apply ps_if_at.
  - apply ps_if_at; [apply (ps_fail_at s 46%N (sc_mark s)); exact HT|].
    apply ps_bind_at; [apply ps_put_at; [pos_triv|intros H; exact H]|].
    destruct number as [n|]; [apply ps_if; [apply ps_panic|apply ps_insert_token, ttok_empty, Hm]|apply ps_push_tok, ttok_empty, Hm].
  - apply ps_put_at; [pos_triv|intros H; exact H].
Qed.

Lemma ps_unroll_indent_go col : forall fuel, pstep (unroll_indent_go fuel col).
Proof using.
  induction fuel as [|fuel IH]; cbn [unroll_indent_go]; [intros s Q HT HQI HQ; apply swp_oof|].
  apply ps_get. intros s HT HQI. apply ps_if_at; [|apply ps_lift, ps_ret].
  destruct (sc_indents s) as [|i r]; [apply ps_lift, ps_panic|].
  apply ps_bind_at; [apply ps_put_at; [pos_triv|intros H; exact H]|].
  apply ps_bind; [|exact IH]. apply ps_if; [apply ps_push_tok, ttok_empty, HT|apply ps_ret].
Qed.
Lemma ps_unroll_indent col : pstep (unroll_indent col).
Proof using.
  unfold unroll_indent. apply ps_get. intros s HT HQI. apply ps_if_at; [apply ps_lift, ps_ret|apply ps_lift, ps_unroll_indent_go].
Qed.
Lemma ps_roll_one : pstep (roll_one_col_indent (I:=strin)).
Proof using.
  unfold roll_one_col_indent. apply ps_get. intros s HT HQI. apply ps_if_at; [|apply ps_lift, ps_ret].
  apply ps_put_at; [pos_triv|intros H; exact H].
Qed.

(* simple keys *)
Lemma ps_save : pstep (save_simple_key (I:=strin)).
Proof using.
  unfold save_simple_key. apply ps_get. intros s HT HQI. apply ps_if_at; [|apply ps_lift, ps_ret].
  intros Q _ _ HQ. apply swp_bind.
  apply swp_mono with (Q := fun (_ : bool) s' => s' = s).
  - destruct (_ && _); [|apply swp_ret; reflexivity]. destruct (sc_indents s); [apply swp_panic|apply swp_ret; reflexivity].
  - intros rq s' ->. apply swp_put. apply HQ; [split; reflexivity|]. destruct HQI as [T K]. split; sproj; [exact T|].
    constructor; [intros _; exact HT|apply Forall_tl; exact K].
Qed.
Lemma ps_remove : pstep (remove_simple_key (I:=strin)).
Proof using.
  unfold remove_simple_key. apply ps_get. intros s HT HQI.
  destruct (sc_sks s) as [|k r] eqn:EK; [apply ps_lift, ps_panic|].
  apply ps_if_at; [apply ps_fail_at; exact HT|]. apply ps_put_at; [pos_triv|].
  intros [T K]. split; sproj; [exact T|]. rewrite EK in K. inversion K; subst. constructor; [apply (sk_ok_clr k)|assumption].
Qed.
Lemma Forall_map_clr (p : simple_key -> bool) l :
  Forall sk_ok l -> Forall sk_ok (map (fun k => if p k then clr k else k) l).
Proof using.
  induction 1 as [|k l Hk Hl IH]; cbn [map]; constructor; [|exact IH]. destruct (p k); [apply sk_ok_clr|exact Hk].
Qed.
Lemma ps_stale : pstep (stale_simple_keys (I:=strin)).
Proof using.
  unfold stale_simple_keys. apply ps_get. intros s HT HQI.
  apply ps_if_at; [apply ps_fail_at; exact HT|]. apply ps_put_at; [pos_triv|].
  intros [T K]. split; sproj; [exact T|].
  apply (Forall_map_clr
      (fun k => sk_possible k && (sc_flow_level s =? 0)%N
                && ((m_line (sk_mark k) <? m_line (sc_mark s))%N
                    || (m_index (sk_mark k) + SIMPLE_KEY_MAX <? m_index (sc_mark s))%N))). exact K.
Qed.
Lemma ps_eim mk : tmark mk -> pstep (end_implicit_mapping mk).
Proof using.
  intros Hm. unfold end_implicit_mapping. apply ps_get. intros s HT HQI.
  destruct (sc_ifms s) as [|[| | |] r]; try (apply ps_lift, ps_ret).
  - apply ps_bind_at; [apply ps_put_at; [pos_triv|intros H; exact H]|apply ps_push_tok, ttok_empty, Hm].
  - apply ps_put_at; [pos_triv|intros H; exact H].
Qed.
Lemma ps_incr : pstep (increase_flow_level (I:=strin)).
Proof using.
  unfold increase_flow_level. apply ps_get. intros s HT HQI.
  apply ps_if_at; [apply (ps_fail_at s 45%N (sc_mark s)); exact HT|].
  apply ps_put_at; [pos_triv|]. intros [T K]. split; sproj; [exact T|]. constructor; [apply sk_ok_new|exact K].
Qed.
Lemma ps_check_closer seq : pstep (check_flow_closer (I:=strin) seq).
Proof using.
  unfold check_flow_closer. apply ps_get. intros s HT HQI.
  destruct (sc_ifms s) as [|st r]; [apply ps_lift, ps_ret|]. cbv zeta.
  apply ps_if_at; [apply ps_lift, ps_ret|]. destruct st; apply (ps_fail_at s _ (sc_mark s)); exact HT.
Qed.
Lemma ps_decr : pstep (decrease_flow_level (I:=strin)).
Proof using.
  unfold decrease_flow_level. apply ps_get. intros s HT HQI. apply ps_if_at; [|apply ps_lift, ps_ret].
  destruct (sc_sks s) as [|k r] eqn:EK; [apply ps_lift, ps_panic|].
  apply ps_put_at; [pos_triv|]. intros [T K]. split; sproj; [exact T|]. rewrite EK in K. inversion K; assumption.
Qed.
Lemma ps_clear_head :
  pstep (modify (fun s : sst => match sc_sks s with
                     | k :: r => set_sks ({| sk_possible := false; sk_required := sk_required k;
                                             sk_token_number := sk_token_number k; sk_mark := sk_mark k |} :: r) s
                     | [] => s end)).
Proof using.
  intros s Q HT HQI HQ. apply swp_modify. destruct (sc_sks s) as [|k r] eqn:EK; [apply HQ; [apply same_pos_refl|exact HQI]|].
  apply HQ; [split; reflexivity|]. destruct HQI as [T K]. split; sproj; [exact T|]. rewrite EK in K. inversion K; subst.
  constructor; [apply (sk_ok_clr k)|assumption].
Qed.

(* running skeleton steps under the position invariant *)
Lemma run_ps m pre (Q : unit -> sst -> Prop) s :
  pstep m -> MarkAt pre s -> QInv s -> (forall s', MarkAt pre s' -> same_pos s s' -> QInv s' -> Q tt s') -> pwp m Q s.
Proof using no_nul.
  intros H HM HQI HQ. apply H; [apply markok_true; exists pre; exact HM|exact HQI|].
  intros s' SP QI. apply HQ; [eapply markat_same; eauto|exact SP|exact QI].
Qed.
Lemma run_ps' m (Q : unit -> sst -> Prop) s :
  pstep m -> Mark' s -> QInv s -> (forall s', Mark' s' -> same_pos s s' -> QInv s' -> Q tt s') -> pwp m Q s.
Proof using no_nul.
  intros H HM HQI HQ. apply H; [apply mark'_true; exact HM|exact HQI|].
  intros s' SP QI. apply HQ; [eapply mark'_same; eauto|exact SP|exact QI].
Qed.

Ltac tm := first [assumption | apply ttok_empty; assumption | apply ttok_spn; assumption].
Ltac ps_one :=
  cbv beta;
  lazymatch goal with
  | |- pstep (ret tt) => apply ps_ret
  | |- pstep (fail _ _) => apply ps_fail; tm
  | |- pstep (panic _) => apply ps_panic
  | |- pstep (if _ then _ else _) => apply ps_if
  | |- pstep (bind mark _) => apply ps_mark; intros ? ?
  | |- pstep (bind _ _) => apply ps_bind
  | |- pstep (push_tok _) => apply ps_push_tok; tm
  | |- pstep (insert_token _ _) => apply ps_insert_token; tm
  | |- pstep allow_simple_key => apply ps_allow
  | |- pstep disallow_simple_key => apply ps_disallow
  | |- pstep roll_one_col_indent => apply ps_roll_one
  | |- pstep save_simple_key => apply ps_save
  | |- pstep remove_simple_key => apply ps_remove
  | |- pstep stale_simple_keys => apply ps_stale
  | |- pstep (end_implicit_mapping _) => apply ps_eim; tm
  | |- pstep (check_flow_closer _) => apply ps_check_closer
  | |- pstep increase_flow_level => apply ps_incr
  | |- pstep decrease_flow_level => apply ps_decr
  | |- pstep (roll_indent _ _ _ _) => apply ps_roll_indent; tm
  | |- pstep (unroll_indent _) => apply ps_unroll_indent
  | |- pstep (modify _) => first [apply ps_clear_head | apply ps_modify; intros ?; pos_triv]
  end.
Ltac ps_auto := repeat ps_one.

Ltac spc :=
  match goal with
  | |- same_pos ?a ?a => apply same_pos_refl
  | H : same_pos ?a ?b |- same_pos ?a ?b => exact H
  | H : same_pos ?a ?b |- same_pos ?a ?c => apply (same_pos_trans a b c H); spc
  end.
(* one skeleton step of a sequence *)
Ltac sks :=
  apply swp_bind; cbv beta;
  (eapply run_ps; [solve [ps_auto] | eassumption | assumption | ]);
  let s' := fresh "s" in let HM := fresh "HM" in let SP := fresh "SP" in let QI := fresh "QI" in
  intros s' HM SP QI; cbv beta.
Ltac wb := apply swp_bind; cbv beta.
Ltac wget := apply swp_bind, swp_get; cbv beta.
(* the current mark is a true mark *)
Ltac have_tm :=
  match goal with
  | |- swp _ _ _ ?s =>
      match goal with
      | H : ScanPos.MarkAt _ ?pre s |- _ =>
          let T := fresh "TM" in pose proof (markok_true _ s (ex_intro _ pre H)) as T
      end
  end.
Ltac wmark := apply swp_bind; unfold mark at 1; apply swp_gets; cbv beta; have_tm.
Ltac wpeek := apply swp_bind, swp_peek; cbv beta.
Ltac wpeekn := apply swp_bind, swp_peekn; cbv beta.
(* skip_non_blank on a character known not to be a break or NUL; leaves the side condition first *)
Ltac wskip :=
  apply swp_bind; cbv beta;
  eapply (pwp_skip_plain_z orig no_nul (skip_non_blank str_ops)); [right; reflexivity | eassumption | |
    let s' := fresh "s" in let HM := fresh "HM" in let R := fresh "R" in let K := fresh "K" in let QI := fresh "QI" in
    intros s' HM R K; assert (QI : QInv s') by (eapply qinv_pkeeps; [exact K|assumption]); cbv beta ].
(* a contract with postcondition [upost] *)
Ltac wupost C :=
  apply swp_bind; cbv beta;
  eapply swp_mono; [apply (C orig no_nul); eexists; eassumption|];
  let a := fresh "a" in let s' := fresh "s" in let pre := fresh "pre" in let HM := fresh "HM" in let K := fresh "K" in
  let QI := fresh "QI" in
  intros a s' [[pre HM] K]; assert (QI : QInv s') by (eapply qinv_pkeeps; [exact K|assumption]); cbv beta.
Ltac wlook :=
  apply swp_bind; cbv beta;
  eapply (pwp_look orig no_nul); [eassumption|];
  let s' := fresh "s" in let HM := fresh "HM" in let R := fresh "R" in let I := fresh "I" in let QI := fresh "QI" in
  intros s' HM R I; assert (QI : QInv s') by (eapply qinv_pkeeps; [apply inonly_pkeeps; exact I|assumption]); cbv beta.

Definition fpost : unit -> sst -> Prop := fun _ s' => MarkOK s' /\ QInv s'.

Lemma fin_push t pre s : MarkAt pre s -> QInv s -> ttok t -> pwp (push_tok t) fpost s.
Proof using no_nul.
  intros HM HQI Ht. unfold push_tok. apply swp_modify. split; [exists pre; eapply markat_same; [exact HM|split; reflexivity]|].
  apply qinv_push; assumption.
Qed.
Ltac fin := cbv beta; eapply fin_push; [eassumption|assumption|tm].

(* a token-returning contract (postcondition [ppost]) followed by push_tok *)
Lemma fin_scan (m : SM token) pre s :
  MarkAt pre s -> QInv s -> pwp m (ppost orig s) s -> pwp (bind m (fun t => push_tok t)) fpost s.
Proof using no_nul.
  intros HM HQI H. apply swp_bind. eapply swp_mono; [exact H|]. intros t s' ([pre' M'] & T' & K'). cbv beta.
  eapply fin_push; [exact M'|eapply qinv_pkeeps; eauto|exact T'].
Qed.

(* fetch_* *)
(* What each fetch_* knows about the next character when fetch_next_token calls it is its precondition. *)

Lemma pw_fetch_stream_start s : Mark' s -> QInv s -> pwp fetch_stream_start (fun _ s' => PInv s') s.
Proof using no_nul.
  intros HM [T K]. unfold fetch_stream_start. wget. apply swp_put. split.
  - apply (mark'_ext s); [exact HM|reflexivity|reflexivity].
  - split; sproj.
    + apply Forall_app. split; [exact T|]. constructor; [apply ttok_empty, mark'_true, HM|constructor].
    + constructor; [apply sk_ok_new|exact K].
Qed.

(* once the end of the input has been seen; the mark may be forced to (index, line + 1, 0) *)
Lemma pw_fetch_stream_end s : Ended s -> QInv s -> pwp fetch_stream_end (fun _ s' => Ended s' /\ QInv s') s.
Proof using no_nul.
  intros HE HQI. unfold fetch_stream_end. apply swp_bind, swp_modify.
  match goal with |- swp _ _ _ ?x => set (s1 := x) end.
  assert (E1 : Ended s1) by (subst s1; destruct (m_col (sc_mark s) =? 0)%N; [exact HE|apply (ended_ext s); [exact HE|reflexivity|reflexivity]]).
  assert (Q1 : QInv s1) by (subst s1; destruct (m_col (sc_mark s) =? 0)%N; [exact HQI|apply (qinv_eq s); [reflexivity|reflexivity|exact HQI]]).
  clearbody s1. wget.
  destruct (existsb _ _); [apply swp_fail, ended_true, E1|].
  apply swp_bind, swp_put.
  match goal with |- swp _ _ _ ?x => set (s2 := x) end.
  assert (E2 : Ended s2) by (apply (ended_ext s1); [exact E1|reflexivity|reflexivity]).
  assert (Q2 : QInv s2).
  { destruct Q1 as [T K]. split; [exact T|]. subst s2; sproj. apply Forall_forall. intros k Hk.
    apply in_map_iff in Hk. destruct Hk as [k0 [<- _]]. apply (sk_ok_clr k0). }
  clearbody s2. cbv beta.
  eapply (run_ps' _ _ s2); [solve [ps_auto]|right; exact E2|exact Q2|].
  intros s3 [[pre M3]|E3] SP3 Q3; (split; [|exact Q3]).
  - apply (ended_ext s2); [exact E2|apply same_pos_rem; exact SP3|destruct SP3 as [_ ->]; reflexivity].
  - exact E3.
Qed.

Lemma pw_fetch_directive F pre s :
  MarkAt pre s -> QInv s -> is_breakz (rnth s 0) = false -> pwp (fetch_directive str_ops F) fpost s.
Proof using no_nul H_dir.
  intros HM HQI Hz. unfold fetch_directive. sks. sks. sks.
  eapply fin_scan; [eassumption|assumption|]. apply H_dir; [eexists; eassumption|].
  rewrite (same_pos_rnth s) by spc. exact Hz.
Qed.

Lemma pw_fetch_tag F pre s :
  MarkAt pre s -> QInv s -> rnth s 0 = 33%N -> pwp (fetch_tag str_ops F) fpost s.
Proof using no_nul H_tag.
  intros HM HQI Hz. unfold fetch_tag. sks. sks.
  eapply fin_scan; [eassumption|assumption|]. apply H_tag; [eexists; eassumption|].
  rewrite (same_pos_rnth s) by spc. exact Hz.
Qed.

Lemma pw_fetch_anchor F alias pre s :
  MarkAt pre s -> QInv s -> is_breakz (rnth s 0) = false -> pwp (fetch_anchor str_ops F alias) fpost s.
Proof using no_nul H_anchor.
  intros HM HQI Hz. unfold fetch_anchor. sks. sks.
  eapply fin_scan; [eassumption|assumption|]. apply H_anchor; [eexists; eassumption|].
  rewrite (same_pos_rnth s) by spc. exact Hz.
Qed.

Lemma pw_fetch_block_scalar F literal pre s :
  MarkAt pre s -> QInv s -> is_breakz (rnth s 0) = false -> pwp (fetch_block_scalar str_ops F literal) fpost s.
Proof using no_nul H_block.
  intros HM HQI Hz. unfold fetch_block_scalar. sks. sks.
  eapply fin_scan; [eassumption|assumption|]. apply H_block; [eexists; eassumption|].
  rewrite (same_pos_rnth s) by spc. exact Hz.
Qed.

Lemma pw_fetch_plain_scalar F pre s :
  MarkAt pre s -> QInv s -> pwp (fetch_plain_scalar str_ops F) fpost s.
Proof using no_nul H_plain.
  intros HM HQI. unfold fetch_plain_scalar. sks. sks.
  eapply fin_scan; [eassumption|assumption|]. apply H_plain. eexists; eassumption.
Qed.

Lemma pw_fetch_flow_scalar F single pre s :
  MarkAt pre s -> QInv s -> is_breakz (rnth s 0) = false -> pwp (fetch_flow_scalar str_ops F single) fpost s.
Proof using no_nul H_flow.
  intros HM HQI Hz. unfold fetch_flow_scalar. sks. sks.
  wb. eapply swp_mono; [apply H_flow; [eexists; eassumption|rewrite (same_pos_rnth s) by spc; exact Hz]|].
  intros t s2 ([pre2 M2] & T2 & K2). cbv beta.
  assert (QI2 : QInv s2) by (eapply qinv_pkeeps; eauto).
  wupost pos_skip_to_next_token. sks. fin.
Qed.

Lemma pw_fetch_flow_collection_start F seq pre s :
  MarkAt pre s -> QInv s -> is_breakz (rnth s 0) = false -> pwp (fetch_flow_collection_start str_ops F seq) fpost s.
Proof using no_nul.
  intros HM HQI Hz. unfold fetch_flow_collection_start. sks. sks. sks. sks. wmark.
  wskip; [rewrite (same_pos_rnth s) by spc; exact Hz|].
  sks. wupost pos_skip_ws_to_eol. wmark. fin.
Qed.

Lemma pw_fetch_flow_collection_end F seq pre s :
  MarkAt pre s -> QInv s -> is_breakz (rnth s 0) = false -> pwp (fetch_flow_collection_end str_ops F seq) fpost s.
Proof using no_nul.
  intros HM HQI Hz. unfold fetch_flow_collection_end. sks. sks. sks. sks. sks. sks. wmark.
  wskip; [rewrite (same_pos_rnth s) by spc; exact Hz|].
  wupost pos_skip_ws_to_eol. sks. wmark. fin.
Qed.

Lemma pw_fetch_flow_entry F pre s :
  MarkAt pre s -> QInv s -> is_breakz (rnth s 0) = false -> pwp (fetch_flow_entry str_ops F) fpost s.
Proof using no_nul.
  intros HM HQI Hz. unfold fetch_flow_entry. sks. sks. wmark. sks.
  wskip; [rewrite (same_pos_rnth s) by spc; exact Hz|].
  wupost pos_skip_ws_to_eol. wmark. fin.
Qed.

Lemma pw_fetch_document_indicator t pre s :
  MarkAt pre s -> QInv s -> (forall i, i < 3 -> is_breakz (rnth s i) = false) ->
  pwp (fetch_document_indicator str_ops t) fpost s.
Proof using no_nul.
  intros HM HQI Hz. unfold fetch_document_indicator. sks. sks. sks. wmark.
  wb. eapply (pwp_skip_n_non_blank_z orig no_nul 3); [eassumption| |].
  { intros i Hi. rewrite (same_pos_rnth s) by spc. apply Hz. exact Hi. }
  intros s3 M3 R3 K3. assert (QI3 : QInv s3) by (eapply qinv_pkeeps; eauto). cbv beta.
  wmark. fin.
Qed.

Lemma pw_fetch_block_entry F pre s :
  MarkAt pre s -> QInv s -> is_breakz (rnth s 0) = false -> pwp (fetch_block_entry str_ops F) fpost s.
Proof using no_nul.
  intros HM HQI Hz. unfold fetch_block_entry. wget. have_tm.
  dif; [apply swp_fail; exact TM|]. dif; [apply swp_fail; exact TM|].
  wb. apply swp_mono with (Q := fun _ s' => s' = s).
  { destruct (sc_tokens s) as [|t0 r0] eqn:ET.
    - cbn [last]. apply swp_ret. reflexivity.
    - assert (HL : ttok (last (t0 :: r0) (span_empty mk0, TStreamEnd))).
      { destruct HQI as [T _]. rewrite ET in T. rewrite Forall_forall in T. apply T. apply last_In. discriminate. }
      destruct (last (t0 :: r0) (span_empty mk0, TStreamEnd)) as [sp tk]. destruct HL as [HL _]. cbn [fst] in HL.
      destruct tk; try (apply swp_ret; reflexivity); (dif; [apply swp_fail; exact HL|apply swp_ret; reflexivity]). }
  intros _ s' ->. cbv beta zeta.
  wskip; [exact Hz|]. sks.
  wupost pos_skip_ws_to_eol. wlook. wpeek. wpeekn.
  dif; [wmark; apply swp_fail; exact TM0|].
  wupost pos_skip_ws_to_eol. wlook. wpeek.
  sks. sks. sks. wmark. fin.
Qed.

Lemma pw_fetch_key F pre s :
  MarkAt pre s -> QInv s -> is_breakz (rnth s 0) = false -> pwp (fetch_key str_ops F) fpost s.
Proof using no_nul.
  intros HM HQI Hz. unfold fetch_key. wget. cbv zeta. have_tm. sks. sks. sks.
  wskip; [rewrite (same_pos_rnth s) by spc; exact Hz|].
  wupost pos_skip_yaml_whitespace. wpeek.
  dif; [wmark; apply swp_fail; assumption|]. wmark. fin.
Qed.

Lemma pw_fetch_value F pre s :
  MarkAt pre s -> QInv s -> is_breakz (rnth s 0) = false -> pwp (fetch_value str_ops F) fpost s.
Proof using no_nul.
  intros HM HQI Hz. unfold fetch_value. wget. have_tm.
  destruct (sc_sks s) as [|sk r0] eqn:EK; [wb; apply swp_panic|]. wb. apply swp_ret. cbv beta zeta.
  assert (HK : sk_ok sk). { destruct HQI as [_ K]. rewrite EK in K. inversion K; assumption. }
  match goal with |- context [if ?a then modify _ else ret tt] => generalize a; intros ifm end.
  sks.
  wskip; [rewrite (same_pos_rnth s) by spc; exact Hz|].
  wb. apply swp_mono with (Q := fun _ s' => MarkOK s' /\ QInv s').
  { dif; [|apply swp_ret; split; [eexists; eassumption|assumption]].
    eapply (pwp_look_ch orig no_nul); [eassumption|]. intros s2 M2 R2 I2. split; [eexists; exact M2|].
    eapply qinv_pkeeps; [apply inonly_pkeeps; exact I2|assumption]. }
  intros c s2 [[pre2 M2] QI2]. cbv beta.
  wb. apply swp_mono with (Q := fun _ s' => MarkOK s' /\ QInv s').
  { dif; [|apply swp_ret; split; [eexists; eassumption|assumption]].
    wupost pos_skip_ws_to_eol.
    dif; [|apply swp_ret; split; [eexists; eassumption|assumption]].
    wpeek. dif; [wmark; apply swp_fail; assumption|apply swp_ret; split; [eexists; eassumption|assumption]]. }
  intros _ s3 [[pre3 M3] QI3]. cbv beta.
  destruct (sk_possible sk) eqn:EP.
  - specialize (HK EP). wget. sks. sks. sks. sks. sks. sks. sks. fin.
  - sks. wget. sks. sks. sks. fin.
Qed.

Lemma pw_fetch_flow_value F pre s :
  MarkAt pre s -> QInv s -> is_breakz (rnth s 0) = false -> pwp (fetch_flow_value str_ops F) fpost s.
Proof using no_nul.
  intros HM HQI Hz. unfold fetch_flow_value. wpeekn. wget. have_tm.
  dif; [apply swp_fail; exact TM|]. eapply pw_fetch_value; eassumption.
Qed.

(* fetch_next_token *)
(* with nothing left to read skip_to_next_token returns at once *)
Lemma ended_skip_to_next_token F s :
  Ended s -> pwp (skip_to_next_token str_ops F) (fun _ s' => Ended s' /\ pkeeps s s') s.
Proof using.
  intros HE. destruct F as [|F]; [exact I|]. cbn [skip_to_next_token].
  apply swp_bind, swp_look_ch. intros s1 R1 I1. fold (inonly s s1) in I1.
  assert (E1 : Ended s1) by (apply (ended_ext s); [exact HE|exact R1|rewrite (inonly_mark _ _ I1); reflexivity]).
  rewrite (ended_rnth s1 0 E1).
  apply swp_bind, swp_get. apply swp_bind. unfold is_within_block. apply swp_gets. cbv beta.
  cbn [N.eqb andb orb]. apply swp_ret. split; [exact E1|apply inonly_pkeeps; exact I1].
Qed.
Lemma mark'_skip_to_next_token F s :
  Mark' s -> pwp (skip_to_next_token str_ops F) (fun _ s' => Mark' s' /\ pkeeps s s') s.
Proof using no_nul.
  intros [HM|HE].
  - eapply swp_mono; [apply (pos_skip_to_next_token orig no_nul); exact HM|]. intros a s' [M' K']. split; [left; exact M'|exact K'].
  - eapply swp_mono; [apply ended_skip_to_next_token; exact HE|]. intros a s' [E' K']. split; [right; exact E'|exact K'].
Qed.

Lemma swp_next_is_document_start E (Q : bool -> sst -> Prop) s :
  (forall r, (r = true -> rnth s 0 = 45%N /\ rnth s 1 = 45%N /\ rnth s 2 = 45%N) -> Q r s) ->
  swp E (next_is_document_start str_ops) Q s.
Proof using. apply swp_document_marker. Qed.
Lemma swp_next_is_document_end E (Q : bool -> sst -> Prop) s :
  (forall r, (r = true -> rnth s 0 = 46%N /\ rnth s 1 = 46%N /\ rnth s 2 = 46%N) -> Q r s) ->
  swp E (next_is_document_end str_ops) Q s.
Proof using. apply swp_document_marker. Qed.
Lemma three_nonbreak s k : is_breakz k = false -> rnth s 0 = k /\ rnth s 1 = k /\ rnth s 2 = k ->
  forall i, i < 3 -> is_breakz (rnth s i) = false.
Proof using.
  intros Hk (A & B & C) i Hi. destruct i as [|[|[|i]]]; [rewrite A|rewrite B|rewrite C|lia]; exact Hk.
Qed.

Lemma fpost_pinv (m : SM unit) s : pwp m fpost s -> pwp m (fun _ s' => PInv s') s.
Proof using. intros H. eapply swp_mono; [exact H|]. intros a s' [M' Q']. split; [left; exact M'|exact Q']. Qed.

Lemma pw_fetch_next_token F s : PInv s -> pwp (fetch_next_token str_ops F) (fun _ s' => PInv s') s.
Proof using no_nul H_dir H_tag H_anchor H_flow H_plain H_block.
  intros [HM HQI]. rewrite fetch_next_token_shape.
  apply swp_bind, swp_look. intros s1 R1 I1. fold (inonly s s1) in I1.
  assert (M1 : Mark' s1) by (apply (mark'_ext s); [exact HM|exact R1|apply inonly_mark; exact I1]).
  assert (QI1 : QInv s1) by (eapply qinv_pkeeps; [apply inonly_pkeeps; exact I1|exact HQI]).
  wget.
  destruct (sc_stream_start s1); cbn [negb]; [|apply pw_fetch_stream_start; assumption].
  wb. eapply swp_mono; [apply mark'_skip_to_next_token; exact M1|]. intros u2 s2 [M2 K2]. cbv beta.
  assert (QI2 : QInv s2) by (eapply qinv_pkeeps; eauto).
  wb. eapply run_ps'; [solve [ps_auto]|exact M2|exact QI2|]. intros s3 M3 SP3 QI3. cbv beta.
  apply swp_bind. unfold mark at 1. apply swp_gets. cbv beta.
  wb. eapply run_ps'; [solve [ps_auto]|exact M3|exact QI3|]. intros s4 M4 SP4 QI4. cbv beta.
  apply swp_bind, swp_look. intros s5 R5 I5. fold (inonly s4 s5) in I5.
  assert (M5 : Mark' s5) by (apply (mark'_ext s4); [exact M4|exact R5|apply inonly_mark; exact I5]).
  assert (QI5 : QInv s5) by (eapply qinv_pkeeps; [apply inonly_pkeeps; exact I5|exact QI4]).
  wb. unfold next_is at 1. apply swp_bind, swp_peek. apply swp_ret. cbv beta.
  destruct (is_z (rnth s5 0)) eqn:Z.
  { (* the end of the input *)
    assert (E5 : Ended s5).
    { destruct M5 as [[pre HM5]|E5]; [|exact E5]. apply (markat_z_ended pre); [exact HM5|].
      unfold is_z in Z. apply N.eqb_eq in Z. exact Z. }
    eapply swp_mono; [apply pw_fetch_stream_end; assumption|]. intros u s6 [E6 Q6]. split; [right; exact E6|exact Q6]. }
  destruct M5 as [[pre HM5]|E5]; [|rewrite (ended_rnth s5 0 E5) in Z; discriminate Z].
  assert (NZ : rnth s5 0 <> 0%N) by (unfold is_z in Z; apply N.eqb_neq in Z; exact Z).
  wget. have_tm. wpeek.
  (* document start / end indicators *)
  wb. apply swp_mono with (Q := fun (b : bool) s' => s' = s5 /\ (b = true -> forall i, i < 3 -> is_breakz (rnth s5 i) = false)).
  { repeat dif; try (apply swp_ret; split; [reflexivity|discriminate]).
    apply swp_next_is_document_start. intros r Hr. split; [reflexivity|]. intros Er. apply (three_nonbreak s5 45%N); [reflexivity|auto]. }
  intros dstart s' [-> Hds]. cbv beta.
  wb. apply swp_mono with (Q := fun (b : bool) s' => s' = s5 /\ (b = true -> forall i, i < 3 -> is_breakz (rnth s5 i) = false)).
  { repeat dif; try (apply swp_ret; split; [reflexivity|discriminate]).
    apply swp_next_is_document_end. intros r Hr. split; [reflexivity|]. intros Er. apply (three_nonbreak s5 46%N); [reflexivity|auto]. }
  intros dend s' [-> Hde]. cbv beta.
  match goal with |- swp _ (if ?b then _ else _) _ _ => destruct b eqn:ED end.
  { apply andb_true_iff in ED as [_ ED]. apply fpost_pinv. eapply pw_fetch_directive; [eassumption|assumption|].
    eapply eqb_not_breakz; [exact ED|reflexivity]. }
  destruct dstart.
  { apply fpost_pinv. eapply pw_fetch_document_indicator; [eassumption|assumption|apply Hds; reflexivity]. }
  destruct dend.
  { wb. eapply swp_mono; [eapply pw_fetch_document_indicator; [eassumption|assumption|apply Hde; reflexivity]|].
    intros u6 s6 [[pre6 HM6] QI6]. cbv beta.
    wupost pos_skip_ws_to_eol.
    wb. unfold next_is at 1. apply swp_bind, swp_peek. apply swp_ret. cbv beta.
    dif; [apply swp_ret; split; [left; eexists; eassumption|assumption]|wmark; apply swp_fail; assumption]. }
  dif; [apply swp_fail; exact TM|].
  wpeek. wpeekn.
  (* the dispatch on the next character: every action knows which character it is about to consume *)
  apply dispatch_cases. intros a Hp. pose proof (dact_pre_not_breakz _ _ _ _ Hp) as Hz.
  destruct a; cbn [run_dact dact_pre] in Hp, Hz |- *.
  - apply fpost_pinv. eapply pw_fetch_flow_collection_start; [eassumption|assumption|exact Hz].
  - apply fpost_pinv. eapply pw_fetch_flow_collection_end; [eassumption|assumption|exact Hz].
  - apply fpost_pinv. eapply pw_fetch_flow_entry; [eassumption|assumption|exact Hz].
  - apply fpost_pinv. eapply pw_fetch_block_entry; [eassumption|assumption|exact Hz].
  - apply fpost_pinv. eapply pw_fetch_key; [eassumption|assumption|exact Hz].
  - apply fpost_pinv. eapply pw_fetch_value; [eassumption|assumption|exact Hz].
  - apply fpost_pinv. eapply pw_fetch_flow_value; [eassumption|assumption|exact Hz].
  - apply fpost_pinv. eapply pw_fetch_anchor; [eassumption|assumption|exact Hz].
  - apply fpost_pinv. eapply pw_fetch_tag; [eassumption|assumption|exact Hp].
  - apply fpost_pinv. eapply pw_fetch_block_scalar; [eassumption|assumption|exact Hz].
  - apply fpost_pinv. eapply pw_fetch_flow_scalar; [eassumption|assumption|exact Hz].
  - apply fpost_pinv. eapply pw_fetch_plain_scalar; [eassumption|assumption].
  - apply swp_fail. exact TM.
Qed.

(* fetch_more_tokens, next_token, scan_all *)
Lemma pw_fetch_more_tokens F : forall fuel s,
  PInv s -> pwp (fetch_more_tokens str_ops F fuel) (fun _ s' => PInv s') s.
Proof using no_nul H_dir H_tag H_anchor H_flow H_plain H_block.
  induction fuel as [|fuel IH]; intros s [HM HQI]; cbn [fetch_more_tokens]; [apply swp_oof|].
  wget.
  wb. apply swp_mono with (Q := fun (_ : bool) s' => PInv s').
  - destruct (sc_tokens s) as [|t r]; [apply swp_ret; split; assumption|].
    wb. eapply run_ps'; [solve [ps_auto]|exact HM|exact HQI|]. intros s1 M1 SP1 QI1. cbv beta.
    wget. apply swp_ret. split; assumption.
  - intros need s1 [M1 QI1]. cbv beta. destruct need.
    + wb. eapply swp_mono; [apply pw_fetch_next_token; split; assumption|]. intros u2 s2 P2. cbv beta.
      apply IH. exact P2.
    + apply swp_modify. split; [apply (mark'_ext s1); [exact M1|reflexivity|reflexivity]|].
      apply (qinv_eq s1); [reflexivity|reflexivity|exact QI1].
Qed.

Lemma pw_next_token F s :
  PInv s -> pwp (next_token str_ops F) (fun o s' => PInv s' /\ (forall t, o = Some t -> ttok t)) s.
Proof using no_nul H_dir H_tag H_anchor H_flow H_plain H_block.
  intros HP. unfold next_token. wget.
  destruct (sc_stream_end s); [apply swp_ret; split; [exact HP|discriminate]|].
  wb. apply swp_mono with (Q := fun _ s' => PInv s').
  { destruct (sc_token_available s); [apply swp_ret; exact HP|apply pw_fetch_more_tokens; exact HP]. }
  intros _ s1 [M1 QI1]. cbv beta. wget.
  destruct (sc_tokens s1) as [|t r] eqn:ETK; [apply swp_fail, mark'_true, M1|].
  destruct QI1 as [T1 K1]. rewrite ETK in T1. inversion T1 as [|t' r' Ht Hr]; subst t' r'.
  apply swp_bind, swp_put.
  match goal with |- swp _ _ _ ?x => set (s2 := x) end.
  assert (P2 : PInv s2).
  { split; [apply (mark'_ext s1); [exact M1|reflexivity|reflexivity]|]. split; subst s2; sproj; assumption. }
  clearbody s2. cbv beta.
  wb. apply swp_mono with (Q := fun _ s' => PInv s').
  { destruct (snd t); try (apply swp_ret; exact P2).
    apply swp_modify. destruct P2 as [M2 Q2]. split; [apply (mark'_ext s2); [exact M2|reflexivity|reflexivity]|].
    apply (qinv_eq s2); [reflexivity|reflexivity|exact Q2]. }
  intros _ s3 P3. cbv beta. apply swp_ret. split; [exact P3|]. intros t0 Et. injection Et as <-. exact Ht.
Qed.

Lemma scan_all_pos F : forall fuel s acc,
  PInv s -> Forall ttok acc ->
  let '(toks, se) := scan_all str_ops F fuel s acc in
  Forall ttok toks /\ (forall site m, se = SError site m -> tmark m).
Proof using no_nul H_dir H_tag H_anchor H_flow H_plain H_block.
  induction fuel as [|fuel IH]; intros s acc HP HA; cbn [scan_all].
  - split; [apply Forall_rev; exact HA|discriminate].
  - pose proof (pw_next_token F s HP) as W. unfold swp in W.
    destruct (next_token str_ops F s) as [[[t|] s']| | |].
    + destruct W as [P' Ht]. apply IH; [exact P'|]. constructor; [apply Ht; reflexivity|exact HA].
    + split; [apply Forall_rev; exact HA|discriminate].
    + split; [apply Forall_rev; exact HA|]. intros site0 m0 E. injection E as _ <-. exact W.
    + split; [apply Forall_rev; exact HA|discriminate].
    + split; [apply Forall_rev; exact HA|discriminate].
Qed.

Lemma pinv_init : PInv (init_sc {| si_chars := orig; si_look := 0 |}).
Proof using.
  split; [left; exists []|split; constructor].
  unfold ScanPos.MarkAt, rem, init_sc; cbn [sc_in sc_mark si_chars m_index m_line m_col app length]. rewrite pos_go_0.
  repeat split.
Qed.

Theorem scan_all_true_positions : forall F fuel,
  let '(toks, se) := scan_all str_ops F fuel (init_sc {| si_chars := orig; si_look := 0 |}) [] in
  Forall (true_tok orig) toks /\ (forall site m, se = SError site m -> true_mark orig m).
Proof using no_nul H_dir H_tag H_anchor H_flow H_plain H_block.
  intros F fuel. apply scan_all_pos; [apply pinv_init|constructor].
Qed.

End PosFetch.
Print Assumptions scan_all_true_positions.
