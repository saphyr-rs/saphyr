(* C09 — facts about the emitter model (Model/Emitter.v) for ALL strings / integers. *)
From Coq Require Import List NArith ZArith Bool Lia.
Import ListNotations.
Require Import Resolver CoreSchema CoreNumber ResolverProofs C08complete Escapes CharTraits QuotedLine Emitter ListKit.
Open Scope N_scope.
Arguments N.eqb : simpl never.
Arguments N.add : simpl never.
Arguments N.leb : simpl never.
Arguments N.ltb : simpl never.

(* lists *)
Lemma existsb_false_In {A} (p : A -> bool) l x : existsb p l = false -> In x l -> p x = false.
Proof.
  intros H Hin. destruct (p x) eqn:E; [|reflexivity].
  rewrite <- H. symmetry. apply existsb_exists. exists x. split; assumption.
Qed.

(* induction over trees *)
Section NodeInd.
Variable P : node -> Prop.
Hypothesis Hnull : P NNull.
Hypothesis Hbool : forall b, P (NBool b).
Hypothesis Hint : forall z, P (NInt z).
Hypothesis Hfloat : forall t, P (NFloat t).
Hypothesis Hstr : forall s, P (NStr s).
Hypothesis Hseq : forall l, Forall P l -> P (NSeq l).
Hypothesis Hmap : forall l, Forall (fun kv => P (fst kv) /\ P (snd kv)) l -> P (NMap l).
Fixpoint node_ind' (n : node) : P n :=
  match n with
  | NNull => Hnull
  | NBool b => Hbool b
  | NInt z => Hint z
  | NFloat t => Hfloat t
  | NStr s => Hstr s
  | NSeq l => Hseq l (Forall_all P node_ind' l)
  | NMap l => Hmap l (Forall_all _ (fun kv => conj (node_ind' (fst kv)) (node_ind' (snd kv))) l)
  end.
End NodeInd.

(* ---- bridging lemmas: the generated tables (Gen/EmitterTables.v, re-translated from emitter.rs on every run) are
        what the proofs are about; removing a disjunct of need_quotes in the Rust source breaks here ---- *)
Lemma tbl_nq_empty : nq_empty = true.        Proof. reflexivity. Qed.
Lemma tbl_nq_spaces : nq_spaces = true.      Proof. reflexivity. Qed.
Lemma tbl_nq_i64 : nq_i64 = true.            Proof. reflexivity. Qed.
Lemma tbl_nq_f64 : nq_f64 = true.            Proof. reflexivity. Qed.
Lemma tbl_nq_resolver : nq_resolver = true.  Proof. reflexivity. Qed.

(* the YAML indicator characters, and what must never occur inside a plain scalar *)
Definition c_indicators : list N := [45; 63; 58; 44; 91; 93; 123; 125; 35; 38; 42; 33; 124; 62; 39; 34; 37; 64; 96].
Definition plain_unsafe : list N := [58; 35; 34; 39; 92; 9; 10; 13; 91; 93; 123; 125; 44; 96; 0].
Lemma tbl_indicators_quoted :
  forallb (fun c => in_ranges c nq_leading || in_ranges c nq_anywhere) c_indicators = true.
Proof. reflexivity. Qed.
Lemma tbl_unsafe_anywhere : forallb (fun c => in_ranges c nq_anywhere) plain_unsafe = true.
Proof. reflexivity. Qed.

(* T1 / T2: what need_quotes = false gives *)
Lemma need_quotes_false s : need_quotes s = false ->
  is_nil s = false /\ starts_with_ch s 32 = false /\ ends_with_ch s 32 = false
  /\ starts_with_in s nq_leading = false /\ contains_in s nq_anywhere = false
  /\ inl s nq_words = false /\ existsb (fun p => has_prefix p s) nq_prefixes = false
  /\ parse_i64 s = None /\ rust_parse_f64 s = None /\ is_sstr (parse_from_cow s) = true.
Proof.
  unfold need_quotes. rewrite tbl_nq_empty, tbl_nq_spaces, tbl_nq_i64, tbl_nq_f64, tbl_nq_resolver.
  cbn [andb]. intros H.
  apply orb_false_iff in H as [H Hres]. apply orb_false_iff in H as [H Hf64]. apply orb_false_iff in H as [H Hi64].
  apply orb_false_iff in H as [H Hpre]. apply orb_false_iff in H as [H Hwords]. apply orb_false_iff in H as [H Hany].
  apply orb_false_iff in H as [H Hlead]. apply orb_false_iff in H as [Hnil Hsp]. apply orb_false_iff in Hsp as [Hs1 Hs2].
  apply negb_false_iff in Hres.
  destruct (parse_i64 s); [discriminate|]. destruct (rust_parse_f64 s); [discriminate|].
  repeat split; assumption.
Qed.

(* T1: a string emitted plain is read back by the resolver as that same string *)
Theorem plain_resolves_to_string s : need_quotes s = false -> parse_from_cow s = SStr s.
Proof.
  intros H. destruct (need_quotes_false s H) as (_ & _ & _ & _ & _ & _ & _ & _ & _ & R).
  pose proof (C08_soundness_fixed s) as Snd.
  destruct (parse_from_cow s) as [| | | |t]; try discriminate R.
  cbn in Snd. subst t. reflexivity.
Qed.

(* T2: the shape a plain-scalar scanner theorem needs *)
Theorem plain_shape s : need_quotes s = false ->
  s <> []
  /\ hd_error s <> Some 32 /\ (s <> [] -> last s 0 <> 32)
  /\ (forall c, hd_error s = Some c -> in_ranges c nq_leading = false /\ ~ In c c_indicators)
  /\ (forall c, In c s -> in_ranges c nq_anywhere = false /\ ~ In c plain_unsafe).
Proof.
  intros H. destruct (need_quotes_false s H) as (E & S1 & S2 & L & A & _).
  assert (HA : forall c, In c s -> in_ranges c nq_anywhere = false /\ ~ In c plain_unsafe).
  { intros c Hin. assert (F : in_ranges c nq_anywhere = false) by exact (existsb_false_In _ _ _ A Hin).
    split; [exact F|]. intros Hu. pose proof (proj1 (forallb_forall _ _) tbl_unsafe_anywhere _ Hu) as T. cbv beta in T. congruence. }
  repeat split.
  - intros ->. discriminate E.
  - destruct s as [|x r]; [discriminate|]. cbn. intros X. inversion X; subst. discriminate S1.
  - intros Hne. destruct s as [|x r]; [congruence|]. unfold ends_with_ch in S2.
    intros X. rewrite X in S2. discriminate S2.
  - destruct s as [|x r]; [discriminate|]. cbn in H0. inversion H0; subst. exact L.
  - destruct s as [|x r]; [discriminate|]. cbn in H0. inversion H0; subst. cbn [starts_with_in] in L.
    intros Hi. pose proof (proj1 (forallb_forall _ _) tbl_indicators_quoted _ Hi) as T. cbv beta in T.
    destruct (HA c (or_introl eq_refl)) as [F _]. rewrite L, F in T. discriminate T.
  - apply HA. assumption.
  - apply HA. assumption.
Qed.

(* T3: escape_str *)
(* every key of the escape table is an ASCII byte: looking a code point up is the same as looking its bytes up *)
Lemma esc_keys_ascii : forallb (fun e => fst e <? 128) emit_escape_table = true.
Proof. reflexivity. Qed.

(* the reading of the body of a one-line double-quoted scalar: Spec/QuotedLine.v (dq_decode) *)

(* each table entry is a well-formed escape that the scanner decodes back to its key *)
Definition esc_entry_ok (e : N * list N) : bool :=
  match dq_decode 2 (snd e) with Some [k] => N.eqb k (fst e) | _ => false end
  && match snd e with c :: _ => N.eqb c 92 | [] => false end.
Lemma esc_table_ok : forallb esc_entry_ok emit_escape_table = true.
Proof. vm_compute. reflexivity. Qed.
Theorem escape_entries_decode k e :
  In (k, e) emit_escape_table -> dq_decode 2 e = Some [k] /\ hd_error e = Some 92.
Proof.
  intros Hin. pose proof (proj1 (forallb_forall _ _) esc_table_ok _ Hin) as H. unfold esc_entry_ok in H. cbn [fst snd] in H.
  apply andb_true_iff in H as [H1 H2]. split.
  - destruct (dq_decode 2 e) as [[|k' [|? ?]]|]; try discriminate H1. apply N.eqb_eq in H1. subst. reflexivity.
  - destruct e as [|c r]; [discriminate|]. apply N.eqb_eq in H2. subst c. reflexivity.
Qed.

Lemma esc_lookup_in c t e : esc_lookup c t = Some e -> In (c, e) t.
Proof.
  induction t as [|[k e'] r IH]; [discriminate|]. cbn. destruct (N.eqb_spec k c) as [->|Hne].
  - intros H; inversion H; subst. left; reflexivity.
  - intros H. right. apply IH. exact H.
Qed.

(* decoding one escaped character in front of any continuation *)
Lemma dq_step_entry k e : In (k, e) emit_escape_table ->
  forall f rest, dq_decode (S f) (e ++ rest) = option_map (cons k) (dq_decode f rest).
Proof.
  intros Hin f rest. unfold emit_escape_table in Hin. cbn [In] in Hin.
  repeat (destruct Hin as [Hin|Hin]; [inversion Hin; subst; reflexivity|]). destruct Hin.
Qed.

(* a code point that is not a key of the table is none of double quote, backslash, LF, CR *)
Definition esc_must_have : list N := [34; 92; 10; 13].
Lemma tbl_esc_must_have : forallb (fun c => is_some (esc_lookup c emit_escape_table)) esc_must_have = true.
Proof. reflexivity. Qed.
Lemma unescaped_is_safe c : esc_lookup c emit_escape_table = None ->
  escape_char c = [c] /\ c <> 34 /\ c <> 92 /\ is_break c = false.
Proof.
  intros H. unfold escape_char. rewrite H. split; [reflexivity|].
  assert (X : forall k, In k esc_must_have -> c <> k).
  { intros k Hk -> . pose proof (proj1 (forallb_forall _ _) tbl_esc_must_have _ Hk) as T. cbv beta in T. rewrite H in T. discriminate T. }
  split; [apply X; cbn; tauto|]. split; [apply X; cbn; tauto|].
  unfold is_break. destruct (N.eqb_spec c 10) as [->|]; [exfalso; apply (X 10); cbn; tauto|].
  destruct (N.eqb_spec c 13) as [->|]; [exfalso; apply (X 13); cbn; tauto|]. reflexivity.
Qed.

Lemma dq_step c f rest : dq_decode (S f) (escape_char c ++ rest) = option_map (cons c) (dq_decode f rest).
Proof.
  destruct (esc_lookup c emit_escape_table) as [e|] eqn:E.
  - unfold escape_char. rewrite E. apply dq_step_entry. apply esc_lookup_in. exact E.
  - destruct (unescaped_is_safe c E) as (-> & N1 & N2 & N3). cbn [app dq_decode].
    destruct (N.eqb_spec c 92); [congruence|]. destruct (N.eqb_spec c 34); [congruence|]. rewrite N3. reflexivity.
Qed.

(* T3: the quoted form is unambiguous — the scanner's decoding of the escaped body is the original string *)
Theorem escape_body_decodes s : dq_decode (S (length s)) (escape_body s) = Some s.
Proof.
  induction s as [|c s IH]; [reflexivity|].
  unfold escape_body. cbn [flat_map length]. rewrite dq_step. fold (escape_body s). rewrite IH. reflexivity.
Qed.

(* T4: integers *)
Open Scope Z_scope.
Lemma digits_val_snoc r s c a :
  digits_val r (s ++ [c]) a =
  match digits_val r s a with
  | Some v => match to_digit r c with Some d => Some (v * Z.of_N r + Z.of_N d) | None => None end
  | None => None
  end.
Proof.
  revert a. induction s as [|x s IH]; intros a; cbn [app digits_val].
  - destruct (to_digit r c); reflexivity.
  - destruct (to_digit r x); [apply IH|reflexivity].
Qed.

Lemma to_digit_dec d : (d < 10)%N -> to_digit 10 (48 + d)%N = Some d.
Proof.
  intros H. unfold to_digit.
  assert (A : ((48 <=? 48 + d)%N && (48 + d <=? 57)%N) = true).
  { apply andb_true_iff; split; apply N.leb_le; lia. }
  rewrite A. replace (48 + d - 48)%N with d by lia.
  assert (B : (d <? 10)%N = true) by (apply N.ltb_lt; exact H). rewrite B. reflexivity.
Qed.

Lemma dec_rev_val fuel : forall n, (n < 2 ^ N.of_nat fuel)%N ->
  digits_val 10 (rev (dec_rev fuel n)) 0 = Some (Z.of_N n).
Proof.
  induction fuel as [|f IH]; intros n Hn.
  - cbn in Hn. assert (n = 0%N) by lia. subst. reflexivity.
  - cbn [dec_rev rev]. rewrite digits_val_snoc.
    assert (Hm : (n mod 10 < 10)%N) by (apply N.mod_lt; discriminate).
    rewrite (to_digit_dec _ Hm).
    destruct (N.ltb_spec n 10) as [Hlt|Hge].
    + cbn [rev digits_val]. rewrite N.mod_small by exact Hlt. f_equal.
    + rewrite IH.
      * f_equal. rewrite (N.div_mod n 10) at 3 by discriminate. lia.
      * rewrite Nat2N.inj_succ, N.pow_succ_r' in Hn.
        apply N.div_lt_upper_bound; [discriminate|]. lia.
Qed.

Lemma dec_N_val n : digits_val 10 (dec_N n) 0 = Some (Z.of_N n).
Proof.
  unfold dec_N. apply dec_rev_val. rewrite Nat2N.inj_succ, N2Nat.id, N.pow_succ_r'.
  pose proof (N.size_gt n). lia.
Qed.

Lemma dec_N_nonempty n : nonempty (dec_N n) = true.
Proof.
  unfold dec_N. cbn [dec_rev rev]. destruct (rev _ ++ _) eqn:E; [|reflexivity].
  apply app_eq_nil in E. destruct E as [_ E]. discriminate E.
Qed.

Lemma dec_N_digits n : all_in is_dig (dec_N n) = true.
Proof. unfold all_in. eapply digits_val_all; [exact to_digit_10|apply dec_N_val]. Qed.

Lemma dec_N_unsigned n : sign_split (dec_N n) = (false, dec_N n).
Proof.
  pose proof (dec_N_nonempty n) as Hn. pose proof (dec_N_digits n) as Hd.
  destruct (dec_N n) as [|c r]; [discriminate|]. unfold all_in in Hd. cbn in Hd. apply andb_true_iff in Hd as [Hc _].
  destruct (dig_not_sign c Hc) as [A B]. cbn [sign_split]. rewrite A, B. reflexivity.
Qed.

Lemma dec_Z_dec_int z : dec_int (dec_Z z) = Some z.
Proof.
  destruct z as [|p|p]; [reflexivity| |].
  - cbn [dec_Z]. unfold dec_int. rewrite dec_N_unsigned, dec_N_nonempty, dec_N_digits, dec_N_val. reflexivity.
  - cbn [dec_Z]. unfold dec_int. cbn [sign_split]. change (ch 45%N 43%N) with false. change (ch 45%N 45%N) with true.
    cbv iota. rewrite dec_N_nonempty, dec_N_digits, dec_N_val. reflexivity.
Qed.

(* T4: the decimal text of every 64-bit integer is read back as that integer *)
Theorem int_text_round_trip z : in_i64 z = true -> parse_from_cow (dec_Z z) = SInt z.
Proof. intros H. apply int_complete; [apply dec_int_core, dec_Z_dec_int|exact H]. Qed.

(* ... and never needs (nor gets) quotes: it is not confused with a string *)
Theorem int_text_parse_i64 z : in_i64 z = true -> parse_i64 (dec_Z z) = Some z.
Proof. intros H. apply parse_i64_complete; [apply dec_Z_dec_int|exact H]. Qed.

(* the other scalar spellings of the emitter are read back with their type *)
Lemma null_text_round_trip : parse_from_cow [126%N] = SNull.       Proof. reflexivity. Qed.
Lemma true_text_round_trip : parse_from_cow w_true = SBool true.    Proof. reflexivity. Qed.
Lemma false_text_round_trip : parse_from_cow w_false = SBool false. Proof. reflexivity. Qed.
Lemma special_floats_round_trip :
  parse_from_cow [46;110;97;110]%N = SFloat FNan /\ parse_from_cow [46;105;110;102]%N = SFloat (FInf false)
  /\ parse_from_cow [45;46;105;110;102]%N = SFloat (FInf true).
Proof. repeat split; reflexivity. Qed.

