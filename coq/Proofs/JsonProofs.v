(* C13 — proofs: the parser model and the loader model on the token stream of a JSON value.
   (i)  parser: from a state that expects a node and has the value's tokens ahead, the pull parser delivers
        exactly [json_events v] and pops back to the continuation state, for every continuation, stack and
        remaining token stream ([node_run], induction on the value with a generalised state stack);
   (ii) loader: loading [json_events v] from ANY loader state is inserting the one node [yaml_of_json v]
        ([load_node]); duplicate member names go through LinkedHashMap::insert = [obj_insert];
   (iii) numbers: every RFC 8259 number is a core-schema literal and resolves to its value
        ([json_number_resolves], from C08's int_complete / float_complete);
   composition: [tokens_load] / [tokens_parse_all]. *)
From Coq Require Import List NArith ZArith Bool Lia.
Import ListNotations.
Require Import Parser SBase SFetch Pipe Resolver CoreSchema CoreNumber ResolverProofs C08complete Loader PipeL Json JsonInd C02run Drivers.
Arguments N.eqb : simpl never.

(* parser half *)
Inductive Steps : parser -> list event -> parser -> Prop :=
| Steps_nil p : Steps p [] p
| Steps_cons p e sp p1 evs p' :
    state_machine p = Parser.Ok ((e, sp), p1) -> p_anchors p1 = p_anchors p -> Steps p1 evs p' -> Steps p (e :: evs) p'.

Lemma Steps_app p a q b r : Steps p a q -> Steps q b r -> Steps p (a ++ b) r.
Proof. induction 1; intros H2; [exact H2|]. cbn [app]. eapply Steps_cons; eauto. Qed.

Lemma Steps_one p e sp q : state_machine p = Parser.Ok ((e, sp), q) -> p_anchors q = p_anchors p -> Steps p [e] q.
Proof. intros H Ha. eapply Steps_cons; [exact H|exact Ha|apply Steps_nil]. Qed.

Definition P (c : option token) (ts : list token) (stk : list pstate) (st : pstate)
             (an : list (Parser.str * N)) (ai : N) (tg : list (Parser.str * Parser.str)) (kt : bool) : parser :=
  {| p_toks := ts; p_token := c; p_states := stk; p_state := st;
     p_anchors := an; p_anchor_id := ai; p_tags := tg; p_keep_tags := kt |}.

Definition node_start (t : tok) : bool :=
  match t with TScalar _ _ | TFlowSequenceStart | TFlowMappingStart => true | _ => false end.

Lemma json_tokens_start v : exists t r, json_tokens v = t :: r /\ node_start t = true.
Proof. destruct v; cbn; eauto. Qed.

(* single steps, by computation *)
Section steps.
Variables (an : list (Parser.str * N)) (ai : N) (tg : list (Parser.str * Parser.str)) (kt : bool).
Notation Q c ts stk st := (P c ts stk st an ai tg kt).

Lemma scalar_node sp sty v tl K stk st block :
  parse_node (Q (Some (sp, TScalar sty v)) tl (K :: stk) st) block false
  = Parser.Ok ((EScalar v sty 0 None, sp), Q None tl stk K).
Proof. reflexivity. Qed.

Lemma seqstart_node sp tl stk st block :
  parse_node (Q (Some (sp, TFlowSequenceStart)) tl stk st) block false
  = Parser.Ok ((ESequenceStart 0 None, sp), Q (Some (sp, TFlowSequenceStart)) tl stk SFlowSequenceFirstEntry).
Proof. reflexivity. Qed.

Lemma mapstart_node sp tl stk st block :
  parse_node (Q (Some (sp, TFlowMappingStart)) tl stk st) block false
  = Parser.Ok ((EMappingStart 0 None, sp), Q (Some (sp, TFlowMappingStart)) tl stk SFlowMappingFirstKey).
Proof. reflexivity. Qed.

Lemma seq_first_end t0 sp tl K stk :
  state_machine (Q (Some t0) ((sp, TFlowSequenceEnd) :: tl) (K :: stk) SFlowSequenceFirstEntry)
  = Parser.Ok ((ESequenceEnd, sp), Q None tl stk K).
Proof. reflexivity. Qed.

Lemma seq_first_node t0 t1 tl stk : node_start (snd t1) = true ->
  state_machine (Q (Some t0) (t1 :: tl) stk SFlowSequenceFirstEntry)
  = parse_node (Q (Some t1) tl (SFlowSequenceEntry :: stk) SFlowSequenceFirstEntry) false false.
Proof. destruct t1 as [sp1 k1]. destruct k1; try discriminate; reflexivity. Qed.

Lemma seq_next_end sp tl K stk :
  state_machine (Q None ((sp, TFlowSequenceEnd) :: tl) (K :: stk) SFlowSequenceEntry)
  = Parser.Ok ((ESequenceEnd, sp), Q None tl stk K).
Proof. reflexivity. Qed.

Lemma seq_next_node spe t1 tl stk : node_start (snd t1) = true ->
  state_machine (Q None ((spe, TFlowEntry) :: t1 :: tl) stk SFlowSequenceEntry)
  = parse_node (Q (Some t1) tl (SFlowSequenceEntry :: stk) SFlowSequenceEntry) false false.
Proof. destruct t1 as [sp1 k1]. destruct k1; try discriminate; reflexivity. Qed.

Lemma map_first_end t0 sp tl K stk :
  state_machine (Q (Some t0) ((sp, TFlowMappingEnd) :: tl) (K :: stk) SFlowMappingFirstKey)
  = Parser.Ok ((EMappingEnd, sp), Q None tl stk K).
Proof. reflexivity. Qed.

Lemma map_first_key t0 spk sps k tl stk :
  state_machine (Q (Some t0) ((spk, TKey) :: (sps, TScalar DoubleQuoted k) :: tl) stk SFlowMappingFirstKey)
  = Parser.Ok ((EScalar k DoubleQuoted 0 None, sps), Q None tl stk SFlowMappingValue).
Proof. reflexivity. Qed.

Lemma map_next_end sp tl K stk :
  state_machine (Q None ((sp, TFlowMappingEnd) :: tl) (K :: stk) SFlowMappingKey)
  = Parser.Ok ((EMappingEnd, sp), Q None tl stk K).
Proof. reflexivity. Qed.

Lemma map_next_key spe spk sps k tl stk :
  state_machine (Q None ((spe, TFlowEntry) :: (spk, TKey) :: (sps, TScalar DoubleQuoted k) :: tl) stk SFlowMappingKey)
  = Parser.Ok ((EScalar k DoubleQuoted 0 None, sps), Q None tl stk SFlowMappingValue).
Proof. reflexivity. Qed.

Lemma map_value_node spv t1 tl stk : node_start (snd t1) = true ->
  state_machine (Q None ((spv, TValue) :: t1 :: tl) stk SFlowMappingValue)
  = parse_node (Q (Some t1) tl (SFlowMappingKey :: stk) SFlowMappingValue) false false.
Proof. destruct t1 as [sp1 k1]. destruct k1; try discriminate; reflexivity. Qed.

(* around the root node of a document without directives or markers *)
Lemma stream_start_step s0 tl stk :
  state_machine (Q None ((s0, TStreamStart) :: tl) stk SStreamStart)
  = Parser.Ok ((EStreamStart, s0), Q None tl stk SImplicitDocumentStart).
Proof. reflexivity. Qed.

Lemma doc_start_step t1 tl stk : node_start (snd t1) = true ->
  state_machine (Q None (t1 :: tl) stk SImplicitDocumentStart)
  = Parser.Ok ((EDocumentStart false, fst t1), Q (Some t1) tl (SDocumentEnd :: stk) SBlockNode).
Proof. destruct t1 as [sp1 k1]. destruct k1; try discriminate; reflexivity. Qed.

Lemma doc_end_step s1 stk :
  state_machine (Q None [(s1, TStreamEnd)] stk SDocumentEnd)
  = Parser.Ok ((EDocumentEnd, s1), P (Some (s1, TStreamEnd)) [] stk SDocumentStart [] ai (if kt then tg else []) kt).
Proof. destruct kt; reflexivity. Qed.

Lemma stream_end_step s1 stk :
  state_machine (Q (Some (s1, TStreamEnd)) [] stk SDocumentStart)
  = Parser.Ok ((EStreamEnd, s1), Q None [] stk SEnd).
Proof. reflexivity. Qed.
End steps.

Definition NodeRun (v : jvalue) : Prop :=
  forall t0 ts rest K stk st block an ai tg kt,
    map snd (t0 :: ts) = json_tokens v ->
    exists e sp p1 evs,
      parse_node (P (Some t0) (ts ++ rest) (K :: stk) st an ai tg kt) block false = Parser.Ok ((e, sp), p1)
      /\ p_anchors p1 = an
      /\ Steps p1 evs (P None rest stk K an ai tg kt)
      /\ e :: evs = json_events v.

(* decomposition of a spanned token list along its projection *)
Ltac split_map :=
  repeat match goal with
  | H : map snd ?l = _ :: _ |- _ =>
      let a := fresh "t" in let tl := fresh "ts" in let E := fresh "E" in let Ha := fresh "Ht" in let Hm := fresh "Hm" in
      apply map_eq_cons in H as (a & tl & E & Ha & Hm); subst l
  | H : map snd ?l = _ ++ _ |- _ =>
      let a := fresh "ta" in let b := fresh "tb" in let E := fresh "E" in let Ha := fresh "Hma" in let Hb := fresh "Hmb" in
      apply map_eq_app in H as (a & b & E & Ha & Hb); subst l
  | H : map snd ?l = [] |- _ => apply map_eq_nil in H; subst l
  end.

Lemma tok_eta (t : token) k : snd t = k -> t = (fst t, k).
Proof. destruct t; cbn; intros ->; reflexivity. Qed.

(* the remaining elements of an array *)
Lemma seq_rest r : Forall NodeRun r ->
  forall tr spe rest K stk an ai tg kt,
    map snd tr = flat_map (fun y => TFlowEntry :: json_tokens y) r ->
    Steps (P None (tr ++ (spe, TFlowSequenceEnd) :: rest) (K :: stk) SFlowSequenceEntry an ai tg kt)
          (flat_map json_events r ++ [ESequenceEnd])
          (P None rest stk K an ai tg kt).
Proof.
  induction 1 as [|y r Hy Hr IH]; intros tr spe rest K stk an ai tg kt Hm; cbn [flat_map] in Hm.
  - split_map. cbn [app flat_map]. eapply Steps_one; [apply seq_next_end|reflexivity].
  - cbn [app] in Hm. split_map.
    destruct (json_tokens_start y) as (k1 & kr & Ey & Hs).
    rewrite Ey in Hma. split_map.
    rewrite (tok_eta t _ Ht) in *. 
    cbn [flat_map]. rewrite <- app_assoc. cbn [app]. rewrite <- app_assoc.
    destruct (Hy t0 ts (tb ++ (spe, TFlowSequenceEnd) :: rest) SFlowSequenceEntry (K :: stk) SFlowSequenceEntry false an ai tg kt)
      as (e & sp & p1 & evs & Hpn & Han & Hst & Hev).
    { cbn [map]. rewrite Ey, Ht0, Hm. reflexivity. }
    rewrite <- Hev. cbn [app].
    eapply Steps_cons.
    + rewrite seq_next_node; [exact Hpn|]. rewrite Ht0. exact Hs.
    + exact Han.
    + eapply Steps_app; [exact Hst|]. apply IH. exact Hmb.
Qed.

Definition member_toks (kv : Resolver.str * jvalue) : list tok :=
  TKey :: TScalar DoubleQuoted (fst kv) :: TValue :: json_tokens (snd kv).
Definition member_events (kv : Resolver.str * jvalue) : list event :=
  EScalar (fst kv) DoubleQuoted 0 None :: json_events (snd kv).

(* the value of a member, from the state after its key *)
Lemma member_value v : NodeRun v ->
  forall tv spv rest stk an ai tg kt,
    map snd tv = json_tokens v ->
    Steps (P None ((spv, TValue) :: tv ++ rest) stk SFlowMappingValue an ai tg kt)
          (json_events v)
          (P None rest stk SFlowMappingKey an ai tg kt).
Proof.
  intros Hv tv spv rest stk an ai tg kt Hm.
  destruct (json_tokens_start v) as (k1 & kr & Ev & Hs).
  pose proof Hm as Hm'. rewrite Ev in Hm'. split_map.
  destruct (Hv t ts rest SFlowMappingKey stk SFlowMappingValue false an ai tg kt Hm)
    as (e & sp & p1 & evs & Hpn & Han & Hst & Hev).
  rewrite <- Hev. cbn [app]. eapply Steps_cons; [|exact Han|exact Hst].
  rewrite map_value_node; [exact Hpn|]. rewrite Ht. exact Hs.
Qed.

Lemma map_rest r : Forall (fun kv => NodeRun (snd kv)) r ->
  forall tr spe rest K stk an ai tg kt,
    map snd tr = flat_map (fun kv => TFlowEntry :: member_toks kv) r ->
    Steps (P None (tr ++ (spe, TFlowMappingEnd) :: rest) (K :: stk) SFlowMappingKey an ai tg kt)
          (flat_map member_events r ++ [EMappingEnd])
          (P None rest stk K an ai tg kt).
Proof.
  induction 1 as [|kv r Hy Hr IH]; intros tr spe rest K stk an ai tg kt Hm; cbn [flat_map] in Hm.
  - split_map. cbn [app flat_map]. eapply Steps_one; [apply map_next_end|reflexivity].
  - unfold member_toks at 1 in Hm. cbn [app] in Hm. split_map.
    rewrite (tok_eta t _ Ht), (tok_eta t0 _ Ht0), (tok_eta t1 _ Ht1), (tok_eta t2 _ Ht2) in *.
    cbn [flat_map]. unfold member_events at 1. cbn [app]. rewrite <- !app_assoc.
    eapply Steps_cons; [apply map_next_key|reflexivity|].
    eapply Steps_app; [apply member_value; [exact Hy|exact Hma]|].
    apply IH. exact Hmb.
Qed.

(* a value that is one scalar token and one scalar event *)
Lemma scalar_run v sty txt : json_tokens v = [TScalar sty txt] -> json_events v = [EScalar txt sty 0 None] -> NodeRun v.
Proof.
  intros Ht He t0 ts rest K stk st block an ai tg kt Hm. rewrite Ht in Hm. inversion Hm as [[H0 H1]]. split_map.
  rewrite (tok_eta t0 _ H0), He. cbn [app].
  do 4 eexists. split; [apply scalar_node|]. split; [reflexivity|]. split; [apply Steps_nil|reflexivity].
Qed.

Theorem node_run v : NodeRun v.
Proof.
  induction v using jvalue_ind2; try (eapply scalar_run; reflexivity);
    unfold NodeRun; intros t0 ts rest K stk st block an ai tg kt Hm.
  - (* array *)
    cbn [json_tokens map] in Hm. injection Hm as H0 H1.
    rewrite (tok_eta t0 _ H0).
    apply map_eq_app in H1 as (tbody & tend & -> & Hbody & Hend).
    apply map_eq_cons in Hend as (te & tnil & -> & Hte & Hnil). apply map_eq_nil in Hnil. subst tnil.
    rewrite (tok_eta te _ Hte). rewrite <- app_assoc. cbn [app json_events].
    do 4 eexists. split; [apply seqstart_node|]. split; [reflexivity|]. split; [|reflexivity].
    destruct H as [|x r Hx Hr].
    + apply map_eq_nil in Hbody. subst tbody. cbn [app flat_map]. eapply Steps_one; [apply seq_first_end|reflexivity].
    + apply map_eq_app in Hbody as (tx & tr & -> & Htx & Htr).
      destruct (json_tokens_start x) as (k1 & kr & Ex & Hs).
      pose proof Htx as Htx'. rewrite Ex in Htx'.
      apply map_eq_cons in Htx' as (t1 & tx1 & -> & Ht1 & _).
      rewrite <- !app_assoc. cbn [app].
      destruct (Hx t1 tx1 (tr ++ (fst te, TFlowSequenceEnd) :: rest) SFlowSequenceEntry (K :: stk)
                   SFlowSequenceFirstEntry false an ai tg kt Htx) as (e & sp & p1 & evs & Hpn & Han & Hst & Hev).
      cbn [flat_map]. rewrite <- Hev. cbn [app]. rewrite <- app_assoc.
      eapply Steps_cons.
      * rewrite seq_first_node; [exact Hpn|]. rewrite Ht1. exact Hs.
      * exact Han.
      * eapply Steps_app; [exact Hst|]. apply seq_rest; assumption.
  - (* object *)
    cbn [json_tokens map] in Hm. injection Hm as H0 H1.
    rewrite (tok_eta t0 _ H0).
    apply map_eq_app in H1 as (tbody & tend & -> & Hbody & Hend).
    apply map_eq_cons in Hend as (te & tnil & -> & Hte & Hnil). apply map_eq_nil in Hnil. subst tnil.
    rewrite (tok_eta te _ Hte). rewrite <- app_assoc. cbn [app json_events].
    do 4 eexists. split; [apply mapstart_node|]. split; [reflexivity|]. split; [|reflexivity].
    destruct H as [|kv r Hx Hr].
    + apply map_eq_nil in Hbody. subst tbody. cbn [app flat_map]. eapply Steps_one; [apply map_first_end|reflexivity].
    + apply map_eq_cons in Hbody as (tk & tm1 & -> & Htk & Hbody).
      apply map_eq_cons in Hbody as (tsc & tm2 & -> & Htsc & Hbody).
      apply map_eq_cons in Hbody as (tv & tm3 & -> & Htv & Hbody).
      apply map_eq_app in Hbody as (tm & tr & -> & Htm & Htr).
      rewrite (tok_eta tk _ Htk), (tok_eta tsc _ Htsc), (tok_eta tv _ Htv).
      cbn [flat_map app]. rewrite <- !app_assoc.
      eapply Steps_cons; [apply map_first_key|reflexivity|].
      eapply Steps_app; [apply member_value; [exact Hx|exact Htm]|].
      apply (map_rest r Hr). exact Htr.
Qed.

Theorem doc_run v ts keep :
  map snd ts = wrap (json_tokens v) ->
  Steps (init_parser ts keep) (json_doc_events v) (P None [] [] SEnd [] 1 [] keep).
Proof.
  unfold wrap. intros Hm.
  apply map_eq_cons in Hm as (tss & ts1 & -> & Hss & Hm).
  apply map_eq_app in Hm as (tv & tend & -> & Hv & Hend).
  apply map_eq_cons in Hend as (te & tnil & -> & Hte & Hnil). apply map_eq_nil in Hnil. subst tnil.
  rewrite (tok_eta tss _ Hss), (tok_eta te _ Hte).
  destruct (json_tokens_start v) as (k1 & kr & Ev & Hs).
  pose proof Hv as Hv'. rewrite Ev in Hv'. apply map_eq_cons in Hv' as (t1 & tv1 & -> & Ht1 & _).
  unfold json_doc_events, init_parser. fold (P None ((fst tss, TStreamStart) :: (t1 :: tv1) ++ [(fst te, TStreamEnd)]) [] SStreamStart [] 1 [] keep).
  eapply Steps_cons; [apply stream_start_step|reflexivity|].
  cbn [app]. eapply Steps_cons; [apply doc_start_step; rewrite Ht1; exact Hs|reflexivity|].
  destruct (node_run v t1 tv1 [(fst te, TStreamEnd)] SDocumentEnd [] SBlockNode true [] 1%N [] keep Hv)
    as (e & sp & p1 & evs & Hpn & Han & Hst & Hev).
  rewrite <- Hev. cbn [app].
  eapply Steps_cons; [exact Hpn|exact Han|].
  eapply Steps_app; [exact Hst|].
  eapply Steps_cons; [apply doc_end_step|reflexivity|].
  destruct keep; (eapply Steps_one; [apply stream_end_step|reflexivity]).
Qed.

(* from Steps to the fuelled drivers *)
Lemma steps_parse_all p evs p' : Steps p evs p' -> p_state p' = SEnd ->
  forall fuel se acc, (length evs < fuel)%nat ->
  exists l, parse_all fuel p se acc = (rev acc ++ l, PDone) /\ map fst l = evs.
Proof.
  induction 1 as [p|p e sp p1 evs p' Hsm Hanc Hst IH]; intros Hend fuel se acc Hf.
  - destruct fuel as [|fuel]; [cbn in Hf; lia|]. rewrite parse_all_S, Hend. exists []. rewrite app_nil_r. split; reflexivity.
  - destruct fuel as [|fuel]; [cbn in Hf; lia|]. rewrite parse_all_S.
    assert (Hne : p_state p <> SEnd).
    { intros E. unfold state_machine in Hsm. rewrite E in Hsm. discriminate. }
    assert (G : step_result fuel p se acc = parse_all fuel p1 se ((e, sp) :: acc)).
    { unfold step_result. rewrite Hsm. reflexivity. }
    destruct (IH Hend fuel se ((e, sp) :: acc)) as (l & Hl & Hml); [cbn [length] in Hf; lia|].
    exists ((e, sp) :: l). split; [|cbn [map fst]; rewrite Hml; reflexivity].
    cbn [rev] in Hl. rewrite <- app_assoc in Hl. cbn [app] in Hl.
    destruct (p_state p); try (rewrite G; exact Hl). contradiction Hne; reflexivity.
Qed.

Definition no_anchor_event (e : event) : bool :=
  match e with EDocumentStart _ => false | _ => true end.

(* parse_load (Parser::load) differs only by clearing the anchor table after DocumentStart: the table is empty anyway *)
Lemma clear_anchors_id p : p_anchors p = [] -> clear_anchors p = p.
Proof. destruct p; cbn. intros ->. reflexivity. Qed.


(* numbers *)
Definition lbind (r : lres) (f : loader -> lres) : lres := match r with LOk l => f l | LPanic n => LPanic n end.

Lemma load_app a b s : load_events (a ++ b) s = lbind (load_events a s) (load_events b).
Proof.
  revert s; induction a as [|e a IH]; intros s; cbn [app load_events lbind]; [reflexivity|].
  destruct (on_event s e); [apply IH|reflexivity].
Qed.

Lemma load_one e s : load_events [e] s = on_event s e.
Proof. cbn [load_events]. destruct (on_event s e); reflexivity. Qed.

Lemma load_cons e r s : load_events (e :: r) s = lbind (on_event s e) (load_events r).
Proof. reflexivity. Qed.

(* scalars *)
Lemma value_of_plain t : value_of t Plain None = YVal (parse_from_cow t).
Proof. reflexivity. Qed.
Lemma value_of_dq s : value_of s DoubleQuoted None = YVal (SStr s).
Proof. reflexivity. Qed.

Lemma num_resolves t sc : json_num_value t = Some sc -> parse_from_cow t = sc.
Proof.
  unfold json_num_value. destruct (core_int t) as [z|] eqn:Ci.
  - destruct (in_i64 z) eqn:R.
    + intros H; inversion H; subst. exact (int_complete t z Ci R).
    + destruct (core_float t) as [f|] eqn:Cf; [|discriminate]. cbn [option_map]. intros H; inversion H; subst.
      apply (float_complete t f Cf). intros z' Hz'. rewrite Ci in Hz'. inversion Hz'; subst. exact R.
  - destruct (core_float t) as [f|] eqn:Cf; [|discriminate]. cbn [option_map]. intros H; inversion H; subst.
    apply (float_complete t f Cf). intros z' Hz'. rewrite Ci in Hz'. discriminate.
Qed.

(* every RFC 8259 number is a core-schema float literal (and possibly an integer literal) *)
Lemma json_exp_part m e0 r : json_exp r = true -> exists x, exp_part m e0 r = Some x.
Proof.
  unfold json_exp, exp_part. destruct r as [|c r']; [eauto|].
  destruct (ch c 101 || ch c 69); [|discriminate]. cbn [andb].
  destruct (sign_split r') as [eneg ds]. intros ->. eauto.
Qed.

Lemma json_int_ok_nonempty ip : json_int_ok ip = true -> nonempty ip = true.
Proof. destruct ip; [discriminate|reflexivity]. Qed.

Lemma json_unsigned_core b : json_unsigned b = true -> exists x, core_number b = Some x.
Proof.
  unfold json_unsigned, core_number. destruct (span_digits b) as [ip r1].
  intros H. apply andb_true_iff in H as [Hi H]. apply json_int_ok_nonempty in Hi.
  destruct r1 as [|c r]; [rewrite Hi; eauto|].
  destruct (ch c 46).
  - destruct (span_digits r) as [fp r2]. apply andb_true_iff in H as [Hf He]. rewrite Hi. cbn [orb].
    apply json_exp_part. exact He.
  - rewrite Hi. apply json_exp_part. exact H.
Qed.

Lemma json_unsigned_head b : json_unsigned b = true -> exists c r, b = c :: r /\ is_dig c = true.
Proof.
  unfold json_unsigned. destruct (span_digits b) as [ip r1] eqn:S. intros H. apply andb_true_iff in H as [Hi _].
  destruct (span_digits_spec _ _ _ S) as [-> Hd]. destruct ip as [|c ip]; [discriminate|].
  cbn in Hd. apply andb_true_iff in Hd as [Hc _]. exists c, (ip ++ r1). auto.
Qed.

Lemma dig_head_not_word c r l : is_dig c = true -> (forall w, In w l -> exists c' r', w = c' :: r' /\ is_dig c' = false) ->
  inl (c :: r) l = false.
Proof.
  intros Hc Hl. destruct (inl (c :: r) l) eqn:E; [|reflexivity]. apply inl_in in E.
  destruct (Hl _ E) as (c' & r' & Hw & Hd). inversion Hw; subst. congruence.
Qed.

Lemma dot_words l : (forall w, In w l -> exists r', w = 46%N :: r') ->
  forall w, In w l -> exists c' r', w = c' :: r' /\ is_dig c' = false.
Proof. intros H w Hw. destruct (H w Hw) as [r' ->]. eauto. Qed.

Lemma json_unsigned_float neg b s : json_unsigned b = true -> sign_split s = (neg, b) ->
  (exists c r, s = c :: r /\ (is_dig c = true \/ c = 45%N)) -> exists f, core_float s = Some f.
Proof.
  intros Hb Hs (c & r & -> & Hc).
  destruct (json_unsigned_core b Hb) as [[m e] Hn].
  destruct (json_unsigned_head b Hb) as (c0 & r0 & -> & Hc0).
  unfold core_float.
  assert (W1 : inl (c :: r) [s_dnan; s_dNaN; s_dNAN] = false).
  { destruct (inl (c :: r) [s_dnan; s_dNaN; s_dNAN]) eqn:E; [|reflexivity]. apply inl_in in E. cbn in E.
    destruct Hc as [Hc|Hc]; repeat (destruct E as [E|E]; [inversion E; subst; discriminate|]); destruct E. }
  rewrite W1, Hs.
  rewrite (dig_head_not_word c0 r0 _ Hc0).
  - rewrite Hn. eauto.
  - apply dot_words. intros w Hw. cbn in Hw. repeat (destruct Hw as [<-|Hw]; [eexists; reflexivity|]). destruct Hw.
Qed.

Theorem json_number_float t : json_number t = true -> exists f, core_float t = Some f.
Proof.
  unfold json_number. destruct t as [|c r]; [discriminate|].
  destruct (ch c 45) eqn:C.
  - intros H. apply N.eqb_eq in C. subst c. apply (json_unsigned_float true r); [exact H|reflexivity|].
    exists 45%N, r. auto.
  - intros H. destruct (json_unsigned_head _ H) as (c0 & r0 & E & Hc0). inversion E; subst c0 r0.
    apply (json_unsigned_float false (c :: r)); [exact H| |exists c, r; auto].
    unfold sign_split. rewrite C.
    assert (C2 : ch c 43 = false). { apply dig_not_sign. exact Hc0. } rewrite C2. reflexivity.
Qed.

Theorem json_number_value t : json_number t = true -> json_num_value t = Some (json_num_scalar t).
Proof.
  intros H. destruct (json_number_float t H) as [f Hf]. unfold json_num_scalar, json_num_value.
  rewrite Hf. cbn [option_map]. destruct (core_int t) as [z|]; [destruct (in_i64 z)|]; reflexivity.
Qed.

Theorem json_number_resolves t : json_number t = true -> parse_from_cow t = json_num_scalar t.
Proof. intros H. apply num_resolves. apply json_number_value. exact H. Qed.

Theorem json_number_both t : json_number t = true ->
  json_num_value t = Some (json_num_scalar t) /\ parse_from_cow t = json_num_scalar t.
Proof. intros H. split; [exact (json_number_value t H)|exact (json_number_resolves t H)]. Qed.


(* loader half *)
(* LinkedHashMap::insert on string keys = obj_insert *)
Lemma remove_key_str k (acc : list (Resolver.str * yaml)) :
  remove_key (YVal (SStr k)) (map ykey acc)
  = (if existsb (fun kv => Resolver.str_eqb k (fst kv)) acc then Some (YVal (SStr k)) else None,
     map ykey (obj_remove k acc)).
Proof.
  induction acc as [|[k' v'] acc IH]; [reflexivity|].
  cbn [map ykey fst snd remove_key yaml_eqb Loader.scalar_eqb existsb obj_remove].
  destruct (Resolver.str_eqb k k') eqn:E.
  - apply str_eqb_eq in E. subst k'. reflexivity.
  - rewrite IH. cbn [orb]. reflexivity.
Qed.

Lemma map_insert_str k v (acc : list (Resolver.str * yaml)) :
  map_insert (YVal (SStr k)) v (map ykey acc) = map ykey (obj_insert acc (k, v)).
Proof.
  unfold map_insert, obj_insert. rewrite remove_key_str. cbn [fst].
  rewrite map_app. cbn [map ykey fst snd].
  destruct (existsb _ acc); reflexivity.
Qed.

Definition LD (d : list yaml) (stk : list (yaml * N)) (ks : list (option yaml)) (an : list (N * yaml)) : loader :=
  {| l_docs := d; l_stack := stk; l_keys := ks; l_anchors := an |}.

Lemma loader_eta s : s = LD (l_docs s) (l_stack s) (l_keys s) (l_anchors s).
Proof. destruct s; reflexivity. Qed.

Definition LoadNode (v : jvalue) : Prop :=
  forall s, load_events (json_events v) s = insert_new_node s (yaml_of_json v) 0.

Lemma seq_items l : Forall LoadNode l ->
  forall k items a d stk ks an,
    load_events (flat_map json_events l ++ k) (LD d ((YSeq items, a) :: stk) ks an)
    = load_events k (LD d ((YSeq (items ++ map yaml_of_json l), a) :: stk) ks an).
Proof.
  induction 1 as [|x l Hx Hl IH]; intros k items a d stk ks an.
  - cbn [flat_map map app]. rewrite app_nil_r. reflexivity.
  - cbn [flat_map map]. rewrite <- app_assoc, load_app, Hx.
    cbn [insert_new_node LD l_stack l_docs l_keys l_anchors lbind]. change (0 <? 0)%N with false. cbv iota.
    fold (LD d ((YSeq (items ++ [yaml_of_json x]), a) :: stk) ks an).
    rewrite IH. rewrite <- app_assoc. reflexivity.
Qed.

Definition member_data (kv : Resolver.str * jvalue) : Resolver.str * yaml := (fst kv, yaml_of_json (snd kv)).

Lemma map_members l : Forall (fun kv => LoadNode (snd kv)) l ->
  forall k acc a d stk ks an,
    load_events (flat_map member_events l ++ k) (LD d ((YMap (map ykey acc), a) :: stk) (None :: ks) an)
    = load_events k (LD d ((YMap (map ykey (fold_left obj_insert (map member_data l) acc)), a) :: stk) (None :: ks) an).
Proof.
  induction 1 as [|kv l Hx Hl IH]; intros k acc a d stk ks an.
  - reflexivity.
  - cbn [flat_map map fold_left]. unfold member_events at 1. cbn [app]. rewrite <- app_assoc.
    rewrite load_cons. cbn [on_event]. rewrite value_of_dq.
    cbn [insert_new_node LD l_stack l_docs l_keys l_anchors lbind]. change (0 <? 0)%N with false. cbv iota.
    rewrite load_app, Hx.
    cbn [insert_new_node LD l_stack l_docs l_keys l_anchors lbind]. change (0 <? 0)%N with false. cbv iota.
    rewrite map_insert_str.
    fold (LD d ((YMap (map ykey (obj_insert acc (fst kv, yaml_of_json (snd kv)))), a) :: stk) (None :: ks) an).
    rewrite IH. reflexivity.
Qed.

Lemma insert_eta s y a : insert_new_node (LD (l_docs s) (l_stack s) (l_keys s) (l_anchors s)) y a = insert_new_node s y a.
Proof. rewrite <- loader_eta. reflexivity. Qed.

Theorem load_node v : json_wf v = true -> LoadNode v.
Proof.
  induction v using jvalue_ind2; intros Hwf ld.
  - cbn [json_events]. rewrite load_one. reflexivity.
  - cbn [json_events]. rewrite load_one. destruct b; reflexivity.
  - cbn [json_events]. rewrite load_one. cbn [on_event]. rewrite value_of_plain.
    cbn [json_wf] in Hwf. rewrite (json_number_resolves t Hwf). reflexivity.
  - cbn [json_events]. rewrite load_one. reflexivity.
  - cbn [json_events yaml_of_json]. rewrite load_cons. cbn [on_event lbind].
    fold (LD (l_docs ld) ((YSeq [], 0%N) :: l_stack ld) (l_keys ld) (l_anchors ld)).
    assert (HF : Forall LoadNode l).
    { cbn [json_wf] in Hwf. rewrite forallb_forall in Hwf. rewrite Forall_forall in H |- *. intros x Hx. apply (H x Hx). apply Hwf. exact Hx. }
    rewrite (seq_items l HF). cbn [app]. rewrite load_one.
    cbn [on_event LD l_stack l_docs l_keys l_anchors]. apply insert_eta.
  - cbn [json_events yaml_of_json]. rewrite load_cons. cbn [on_event lbind].
    assert (HF : Forall (fun kv => LoadNode (snd kv)) l).
    { cbn [json_wf] in Hwf. rewrite forallb_forall in Hwf. rewrite Forall_forall in H |- *. intros x Hx. apply (H x Hx). apply Hwf. exact Hx. }
    change (load_events (flat_map member_events l ++ [EMappingEnd])
              (LD (l_docs ld) ((YMap (map ykey []), 0%N) :: l_stack ld) (None :: l_keys ld) (l_anchors ld))
            = insert_new_node ld (YMap (map ykey (fold_left obj_insert (map member_data l) []))) 0).
    rewrite (map_members l HF). rewrite load_one.
    cbn [on_event LD l_stack l_docs l_keys l_anchors]. apply insert_eta.
Qed.

Theorem doc_load v : json_wf v = true ->
  load_events (json_doc_events v) l0 = LOk (LD [yaml_of_json v] [] [] []).
Proof.
  intros Hwf. unfold json_doc_events. rewrite load_cons. cbn [on_event lbind]. rewrite load_cons. cbn [on_event lbind].
  rewrite load_app, (load_node v Hwf). reflexivity.
Qed.

(* distinct member names: nothing to normalise *)
Lemma existsb_str_false k (l : list Resolver.str) : existsb (Resolver.str_eqb k) l = false -> ~ In k l.
Proof.
  intros H Hin. assert (existsb (Resolver.str_eqb k) l = true); [|congruence].
  apply existsb_exists. exists k. split; [exact Hin|apply str_eqb_refl].
Qed.

Lemma keys_distinct_nodup l : keys_distinct l = true -> NoDup l.
Proof.
  induction l as [|k r IH]; [constructor|]. cbn [keys_distinct]. intros H. apply andb_true_iff in H as [H1 H2].
  constructor; [|exact (IH H2)]. apply existsb_str_false. destruct (existsb _ r); [discriminate|reflexivity].
Qed.

Lemma obj_remove_absent {B} k (acc : list (Resolver.str * B)) : ~ In k (map fst acc) -> obj_remove k acc = acc.
Proof.
  induction acc as [|[k' v'] acc IH]; [reflexivity|]. cbn [map fst In obj_remove]. intros H.
  destruct (Resolver.str_eqb k k') eqn:E.
  - apply str_eqb_eq in E. subst. exfalso. apply H. left. reflexivity.
  - rewrite IH; [reflexivity|]. intros Hin. apply H. right. exact Hin.
Qed.

Lemma obj_fold_nodup {B} (l acc : list (Resolver.str * B)) :
  NoDup (map fst (acc ++ l)) -> fold_left obj_insert l acc = acc ++ l.
Proof.
  revert acc; induction l as [|kv l IH]; intros acc H; cbn [fold_left]; [rewrite app_nil_r; reflexivity|].
  unfold obj_insert at 2. rewrite obj_remove_absent.
  - rewrite IH; rewrite <- app_assoc; [reflexivity|exact H].
  - rewrite map_app in H. cbn [map] in H. apply NoDup_remove_2 in H. intros Hin. apply H. apply in_or_app. left. exact Hin.
Qed.

Theorem obj_norm_nodup {B} (l : list (Resolver.str * B)) : keys_distinct (map fst l) = true -> obj_norm l = l.
Proof. intros H. unfold obj_norm. rewrite obj_fold_nodup; [reflexivity|]. cbn [app]. apply keys_distinct_nodup. exact H. Qed.

Theorem yaml_of_json_distinct v : json_distinct v = true -> yaml_of_json v = yaml_of_json_ordered v.
Proof.
  induction v using jvalue_ind2; intros Hd; try reflexivity.
  - cbn [yaml_of_json yaml_of_json_ordered]. f_equal. apply map_ext_in. intros x Hx.
    rewrite Forall_forall in H. apply (H x Hx). cbn [json_distinct] in Hd. rewrite forallb_forall in Hd. apply Hd. exact Hx.
  - cbn [yaml_of_json yaml_of_json_ordered]. f_equal. cbn [json_distinct] in Hd. apply andb_true_iff in Hd as [Hk Hd].
    rewrite obj_norm_nodup; [|rewrite map_map; cbn [fst]; exact Hk].
    rewrite map_map. apply map_ext_in. intros kv Hkv. unfold ykey. cbn [fst snd]. f_equal.
    rewrite Forall_forall in H. apply (H kv Hkv). rewrite forallb_forall in Hd. apply Hd. exact Hkv.
Qed.

(* fuel: no more events than tokens *)
Lemma flat_len_le {A B C} (f : A -> list B) (g : A -> list C) l :
  Forall (fun x => length (f x) <= length (g x))%nat l -> (length (flat_map f l) <= length (flat_map g l))%nat.
Proof. induction 1; cbn [flat_map]; [cbn; lia|]. rewrite !app_length. lia. Qed.

Lemma events_le_tokens v : (length (json_events v) <= length (json_tokens v))%nat.
Proof.
  induction v using jvalue_ind2; try (cbn; lia).
  - cbn [json_events json_tokens length]. rewrite !app_length. cbn [length].
    destruct H as [|x r Hx Hr]; [cbn; lia|]. cbn [flat_map]. rewrite !app_length.
    pose proof (flat_len_le json_events (fun y => TFlowEntry :: json_tokens y) r) as G.
    assert (Forall (fun x => length (json_events x) <= length (TFlowEntry :: json_tokens x))%nat r).
    { eapply Forall_impl; [|exact Hr]. cbn [length]. intros; lia. }
    specialize (G H). lia.
  - cbn [json_events json_tokens length]. rewrite !app_length. cbn [length].
    destruct H as [|x r Hx Hr]; [cbn; lia|]. cbn [flat_map]. rewrite !app_length. cbn [length].
    pose proof (flat_len_le (fun kv => EScalar (fst kv) DoubleQuoted 0 None :: json_events (snd kv))
                  (fun kv => TFlowEntry :: TKey :: TScalar DoubleQuoted (fst kv) :: TValue :: json_tokens (snd kv)) r) as G.
    assert (Forall (fun x : Resolver.str * jvalue => length (EScalar (fst x) DoubleQuoted 0 None :: json_events (snd x))
                         <= length (TFlowEntry :: TKey :: TScalar DoubleQuoted (fst x) :: TValue :: json_tokens (snd x)))%nat r).
    { eapply Forall_impl; [|exact Hr]. cbn [length]. intros; lia. }
    specialize (G H). cbn beta in Hx. apply le_n_S, Nat.add_le_mono_r, Nat.add_le_mono; [exact (le_S _ _ (le_S _ _ (le_n_S _ _ Hx)))|exact G].
Qed.

Lemma doc_events_fuel v (ts : list token) : map snd ts = wrap (json_tokens v) -> (length (json_doc_events v) <= length ts + 2)%nat.
Proof.
  intros H. assert (L : length ts = length (wrap (json_tokens v))) by (rewrite <- H, map_length; reflexivity).
  rewrite L. unfold wrap, json_doc_events. cbn [length]. rewrite !app_length. cbn [length].
  pose proof (events_le_tokens v). lia.
Qed.


(* composition *)
(* Parser::load (PipeL.parse_load) differs from the bare event loop only by clearing the anchor table after
   DocumentStart; along a JSON run the table stays empty *)
Lemma steps_parse_load p evs p' : Steps p evs p' -> p_anchors p = [] -> p_state p' = SEnd ->
  forall fuel se acc, (length evs < fuel)%nat ->
  parse_load fuel p se acc = (rev acc ++ evs, PDone).
Proof.
  induction 1 as [p|p e sp p1 evs p' Hsm Hanc Hst IH]; intros Hnil Hend fuel se acc Hf.
  - destruct fuel as [|fuel]; [cbn in Hf; lia|]. cbn [parse_load]. rewrite Hend, app_nil_r. reflexivity.
  - destruct fuel as [|fuel]; [cbn in Hf; lia|].
    assert (Hne : p_state p <> SEnd).
    { intros E. unfold state_machine in Hsm. rewrite E in Hsm. discriminate. }
    assert (Hp1 : p_anchors p1 = []) by (rewrite Hanc; exact Hnil).
    assert (Hc : match e with EDocumentStart _ => clear_anchors p1 | _ => p1 end = p1).
    { destruct e; try reflexivity. apply clear_anchors_id. exact Hp1. }
    specialize (IH Hp1 Hend fuel se (e :: acc)).
    cbn [rev] in IH. rewrite <- app_assoc in IH. cbn [app] in IH.
    cbn [parse_load]. rewrite Hsm, Hc.
    destruct (p_state p); try (apply IH; cbn [length] in Hf; lia). contradiction Hne; reflexivity.
Qed.

(* the part of PipeL.run_load behind the scanner *)
Definition load_tokens (fuel : nat) (ts : list token) (se : scan_end) : lout :=
  match parse_load fuel (init_parser ts false) se [] with
  | (evs, PDone) => match load_events evs l0 with LOk ld => LDocs (rev (l_docs ld)) | LPanic n => LBad n end
  | (_, PPanic n) => LBad n
  | (_, PFuel) => LBad 999
  | _ => LErr
  end.

(* run_load is the scanner model followed by load_tokens (F: the fuel unit run_load derives from the text length) *)
Lemma run_load_tokens s :
  exists F, run_load s =
            (let '(toks, se) := scan_all str_ops F (4 * F + 20) (init_sc {| si_chars := s; si_look := 0 |}) [] in
             load_tokens (4 * F + 20) toks se).
Proof. eexists. unfold run_load, load_tokens, init_parser. cbv zeta. reflexivity. Qed.



(* events and verdict of the pull parser on the tokens of a JSON text (Parser::next_event loop) *)
Theorem tokens_parse_all v ts keep se fuel :
  map snd ts = wrap (json_tokens v) -> (length ts + 2 < fuel)%nat ->
  let r := parse_all fuel (init_parser ts keep) se [] in
  snd r = PDone /\ evs_of (fst r) = json_doc_events v.
Proof.
  intros Hm Hf. cbv zeta.
  destruct (steps_parse_all _ _ _ (doc_run v ts keep Hm) eq_refl fuel se []) as (l & Hl & Hml).
  { eapply Nat.le_lt_trans; [exact (doc_events_fuel v ts Hm)|exact Hf]. }
  rewrite Hl. cbn [fst snd rev app]. split; [reflexivity|exact Hml].
Qed.

(* Drivers.parse_tokens (the entry point the correspondence run feeds with the implementation's tokens) *)
Theorem tokens_parse_tokens v ts keep se :
  map snd ts = wrap (json_tokens v) ->
  let r := parse_tokens ts se keep in snd r = PDone /\ evs_of (fst r) = json_doc_events v.
Proof. intros Hm. apply (tokens_parse_all v ts keep se _ Hm). unfold token. lia. Qed.

(* parser + loader: exactly one document, the JSON value *)
Theorem tokens_load v ts se fuel :
  json_wf v = true -> map snd ts = wrap (json_tokens v) -> (length ts + 2 < fuel)%nat ->
  load_tokens fuel ts se = LDocs [yaml_of_json v].
Proof.
  intros Hwf Hm Hf. unfold load_tokens.
  rewrite (steps_parse_load _ _ _ (doc_run v ts false Hm) eq_refl eq_refl fuel se []).
  - cbn [rev app]. rewrite (doc_load v Hwf). reflexivity.
  - eapply Nat.le_lt_trans; [exact (doc_events_fuel v ts Hm)|exact Hf].
Qed.

Theorem tokens_load_events v ts keep se fuel :
  json_wf v = true -> map snd ts = wrap (json_tokens v) -> (length ts + 2 < fuel)%nat ->
  load_events (evs_of (fst (parse_all fuel (init_parser ts keep) se []))) l0 = LOk (LD [yaml_of_json v] [] [] []).
Proof.
  intros Hwf Hm Hf. destruct (tokens_parse_all v ts keep se fuel Hm Hf) as [_ ->]. exact (doc_load v Hwf).
Qed.

Theorem tokens_load_ordered v ts se fuel :
  json_wf v = true -> json_distinct v = true -> map snd ts = wrap (json_tokens v) -> (length ts + 2 < fuel)%nat ->
  load_tokens fuel ts se = LDocs [yaml_of_json_ordered v].
Proof. intros Hwf Hd Hm Hf. rewrite <- (yaml_of_json_distinct v Hd). exact (tokens_load v ts se fuel Hwf Hm Hf). Qed.

(* hence: whenever the scanner model delivers the tokens of a JSON value, run_load delivers the value *)
Theorem text_load_of_tokens s v :
  json_wf v = true ->
  (forall F, let '(toks, _) := scan_all str_ops F (4 * F + 20) (init_sc {| si_chars := s; si_look := 0 |}) [] in
             map snd toks = wrap (json_tokens v) /\ (length toks + 2 < 4 * F + 20)%nat) ->
  run_load s = LDocs [yaml_of_json v].
Proof.
  intros Hwf Hsc. destruct (run_load_tokens s) as [F ->]. specialize (Hsc F).
  destruct (scan_all _ _ _ _ _) as [toks se]. destruct Hsc as [Hm Hf].
  exact (tokens_load v toks se _ Hwf Hm Hf).
Qed.

(* texts: the relation is inhabited as intended; the former finding (TAB after ':') at the text level *)
(* the text  [1 ,<LF>"a\né"]  (17 code points) is a serialisation of [1, "a<LF>é"] and loads as that value *)
Lemma text_example :
  json_doc_text (JArr [JNum [49]%N; JStr [97;10;233]%N])
                [91;49;32;44;10;34;97;92;110;92;117;48;48;101;57;34;93]%N.
Proof.
  exists [], [91;49;32;44;10;34;97;92;110;92;117;48;48;101;57;34;93]%N, []. repeat split; try reflexivity.
  apply (jt_arr (JNum [49]%N) [JStr [97;10;233]%N] [49;32;44;10;34;97;92;110;92;117;48;48;101;57;34]%N).
  apply (et_cons (JNum [49]%N) [] [49]%N [32]%N [JStr [97;10;233]%N] [10;34;97;92;110;92;117;48;48;101;57;34]%N); try reflexivity.
  - apply jt_num. reflexivity.
  - apply (et_one (JStr [97;10;233]%N) [10]%N [34;97;92;110;92;117;48;48;101;57;34]%N []); try reflexivity.
    apply (jt_str [97;10;233]%N [97;92;110;92;117;48;48;101;57]%N).
    apply st_raw; try reflexivity.
    apply (st_esc 110%N 10%N); [cbn; tauto|].
    apply (st_u 48 48 101 57 233)%N; try reflexivity.
    apply st_nil.
Qed.

(* the text  {"a":<TAB>1}  is a serialisation of {"a": 1} ... *)
Lemma tab_text : json_doc_text (JObj [([97]%N, JNum [49]%N)]) [123;34;97;34;58;9;49;125]%N.
Proof.
  exists [], [123;34;97;34;58;9;49;125]%N, []. repeat split; try reflexivity.
  apply (jt_obj ([97]%N, JNum [49]%N) [] [34;97;34;58;9;49]%N).
  apply (mt_one [97]%N (JNum [49]%N) [] [97]%N [] [9]%N [49]%N []); try reflexivity.
  - apply st_raw; try reflexivity. apply st_nil.
  - apply jt_num. reflexivity.
Qed.

(* ... of nesting depth 1; it was the witness of the finding colon-tab-scalar (the tab check of fetch_value fired
   in flow context too).  Since /repo b87c12b the check only runs at flow level 0 and the whole model pipeline
   loads the text with its JSON meaning. *)
Lemma tab_text_loads :
  (json_depth (JObj [([97]%N, JNum [49]%N)]) < 256)%nat /\
  run_load [123;34;97;34;58;9;49;125]%N = LDocs [yaml_of_json (JObj [([97]%N, JNum [49]%N)])].
Proof. split; [cbn; lia|vm_compute; reflexivity]. Qed.
