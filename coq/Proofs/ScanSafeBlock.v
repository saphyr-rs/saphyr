(* Joint proof "the scanner never panics on a buffered input of any capacity >= 8" — family: BLOCK SCALARS.
   Main result: [safe_scan_block_scalar : spec_scan_block_scalar cap] (under the contract of [skip_ws_to_eol]).

   The block-scalar code is the part of the scanner that branches on the state of the look-ahead buffer
   ([buf_is_empty], the raw fast path [raw_read_non_breakz], the "narrow"/"wide" indentation skippers), so the
   invariants below talk about the buffered length [bl s], the mark column and the first character of the
   remaining stream ([shead s]: first buffered character, or first unread character when the buffer is empty). *)
From Coq Require Import List NArith ZArith Bool Arith Lia.
Import ListNotations.
Require Import Parser SBase SPrim SDir SScalar SFetch SBuf ScanLoops ScanWP ScanSafePrim.
Local Open Scope nat_scope.
Arguments Nat.ltb : simpl never.
Arguments Nat.leb : simpl never.
Arguments Nat.eqb : simpl never.
Arguments Nat.sub : simpl never.
Arguments N.ltb : simpl never.
Arguments N.eqb : simpl never.
Arguments N.leb : simpl never.
Arguments N.add : simpl never.
Arguments N.max : simpl never.

Section Block.
Variable cap : nat.
Hypothesis cap_ge : 8 <= cap.
Hypothesis H_ws : spec_skip_ws_to_eol cap.
Notation st := (sc bufin).
Notation bo := (bops cap).

(* value/column-exposing variants of the framework rules *)
(* the column of the mark, as a [nat] *)
Definition coln (s : st) : nat := N.to_nat (m_col (sc_mark s)).

(* [skip_blank] consumes one buffered character and advances the column by one *)
Lemma wp_skip_blank_col (Q : unit -> st -> Prop) s :
  (forall s', bl s' = bl s - 1 -> m_col (sc_mark s') = (m_col (sc_mark s) + 1)%N -> Q tt s') ->
  wp (skip_blank bo) Q s.
Proof.
  intros HQ. unfold skip_blank. apply wp_bind. apply (wp_in_skip cap cap_ge). intros s1 H1 B1.
  unfold adv_mark. apply wp_modify. apply HQ; [exact B1|].
  cbn. rewrite (proj1 (sbi_fields _ _ H1)). reflexivity.
Qed.

Lemma wp_next_is_val p (Q : bool -> st -> Prop) s : 1 <= bl s -> Q (p (bnth s 0)) s -> wp (next_is bo p) Q s.
Proof. intros H HQ. unfold next_is. apply wp_bind. apply (wp_peek_val cap cap_ge); [exact H|]. apply wp_ret, HQ. Qed.

Lemma wp_col (Q : N -> st -> Prop) s : Q (m_col (sc_mark s)) s -> wp (@col bufin) Q s.
Proof. intros H. exact H. Qed.

(* first character of the remaining stream: the first buffered character, or the first unread one (NUL at the end) *)
Definition shead (s : st) : chr := nth 0 (b_buf (sc_in s) ++ b_rest (sc_in s)) 0%N.

Lemma shead_bnth s : 1 <= bl s -> shead s = bnth s 0.
Proof. unfold shead, bnth, bl. destruct (b_buf (sc_in s)); cbn; [lia|reflexivity]. Qed.

Lemma take_pad_hd n r : nth 0 (fst (take_pad n r) ++ snd (take_pad n r)) 0%N = nth 0 r 0%N.
Proof.
  destruct n as [|n]; cbn [take_pad]; [reflexivity|].
  destruct r as [|c r]; destruct (take_pad n _) as [a r']; reflexivity.
Qed.

(* filling the buffer does not change the first character of the stream *)
Lemma wp_look_hd n (Q : unit -> st -> Prop) s :
  n <= cap -> (forall s', n <= bl s' -> shead s' = shead s -> Q tt s') -> wp (look bo n) Q s.
Proof.
  intros Hn HQ. unfold wp, look, bops. cbn [lookahead buf_ops].
  destruct (Nat.leb n (length (b_buf (sc_in s)))) eqn:E1.
  - apply HQ; unfold bl, shead; cbn; [apply Nat.leb_le in E1; lia | reflexivity].
  - destruct (Nat.ltb cap n) eqn:E2; [apply Nat.ltb_lt in E2; lia|].
    pose proof (take_pad_length (n - length (b_buf (sc_in s))) (b_rest (sc_in s))) as HL.
    pose proof (take_pad_hd (n - length (b_buf (sc_in s))) (b_rest (sc_in s))) as HH.
    destruct (take_pad _ _) as [a r]. cbn [fst snd] in HL, HH. apply Nat.leb_gt in E1.
    apply HQ; unfold bl, shead; cbn; [rewrite app_length; lia | ].
    rewrite <- app_assoc. destruct (b_buf (sc_in s)); cbn; [exact HH | reflexivity].
Qed.

(* the raw fast path, with an empty buffer: it stops exactly in front of a break or the end of the stream *)
Lemma wp_raw_read_hd (Q : option chr -> st -> Prop) s :
  bl s = 0 ->
  (forall c s', (c <> None -> bl s' = 0) -> (c = None -> is_breakz (shead s') = true) -> Q c s') ->
  wp (raw_read bo) Q s.
Proof.
  intros H0 HQ. unfold wp, raw_read, bops. cbn [raw_read_non_breakz buf_ops]. unfold bl in *.
  apply length_zero_iff_nil in H0.
  destruct (b_rest (sc_in s)) as [|c r] eqn:ER.
  - apply HQ; unfold shead; cbn; [congruence|].
    intros _. rewrite H0, ER. reflexivity.
  - destruct (is_breakz c) eqn:Ec.
    + destruct (Nat.leb cap (length (b_buf (sc_in s)))) eqn:E; [apply Nat.leb_le in E; rewrite H0 in E; cbn in E; lia|].
      apply HQ; unfold shead; cbn; [congruence | ].
      intros _. rewrite H0. cbn. exact Ec.
    + apply HQ; unfold shead; cbn; [intros _; rewrite H0; reflexivity | congruence].
Qed.

(* ---------------- (1) scan_block_scalar_content_line ----------------
   Loop 1 (buffered characters): every round first asks [buf_is_empty]; the [peek] happens only when the buffer
   is non-empty.  It ends with an empty buffer or in front of a buffered break/NUL.
   Loop 2 (raw fast path): entered only when the buffer is empty; [raw_read] keeps the buffer empty while it
   returns characters, and ends by pushing back at most the one break it has seen.
   Postcondition: the stream is positioned in front of a break or NUL (needed for the [debug_assert!] in the
   caller's [skip_break]). *)
Lemma safe_content_line F acc s :
  wp (scan_block_scalar_content_line bo F acc) (fun _ s' => is_breakz (shead s') = true) s.
Proof.
  rewrite content_line_eq. apply wp_bind.
  assert (Hgo : forall f acc1 s1,
            wp (bs_go bo f acc1) (fun _ s' => bl s' = 0 \/ is_breakz (shead s') = true) s1).
  { induction f as [|f IH]; intros acc1 s1; [exact I|].
    cbn [bs_go].
    apply wp_bind. apply wp_buf_is_empty. destruct (Nat.eqb (bl s1) 0) eqn:E.
    - apply wp_ret. left. apply Nat.eqb_eq; exact E.
    - apply Nat.eqb_neq in E. apply wp_bind. apply (wp_peek_val cap cap_ge); [lia|].
      destruct (is_breakz (bnth s1 0)) eqn:Eb.
      + apply wp_ret. right. rewrite shead_bnth; [exact Eb|lia].
      + apply wp_bind. apply (wp_skip_blank cap cap_ge). intros s2 _ _. apply IH. }
  eapply wp_mono; [apply Hgo|]. cbv beta. intros acc1 s1 D. clear Hgo.
  apply wp_bind. apply wp_buf_is_empty. destruct (Nat.eqb (bl s1) 0) eqn:E.
  - apply Nat.eqb_eq in E. generalize 0%N. revert acc1 s1 D E.
    induction F as [|f IH]; intros acc2 s2 _ B2 n; [exact I|].
    cbn [bs_raw].
    apply wp_bind. apply wp_raw_read_hd; [exact B2|]. intros c s3 B3 V3.
    destruct c as [c|].
    + apply IH; [left|]; apply B3; discriminate.
    + apply wp_bind. unfold adv_mark. apply wp_modify. apply wp_ret. apply (V3 eq_refl).
  - apply wp_ret. apply Nat.eqb_neq in E. destruct D as [D|D]; [lia|exact D].
Qed.

(* ---------------- (2) skip_spaces_to ----------------
   check_buf = false: the caller has filled the buffer ([look cap]) and [indent < cap - 2].  Invariant: the number of
   characters still to be consumed plus [d] is below the number of buffered characters; written without
   subtraction:  indent + d < bl s + column s   (each [skip_blank] moves one unit from [bl] to the column). *)
Lemma safe_skip_spaces_nocheck d indent : forall fuel s,
  d < bl s -> N.to_nat indent + d < bl s + coln s ->
  wp (skip_spaces_to bo fuel indent false) (fun _ s' => d < bl s') s.
Proof.
  induction fuel as [|fuel IH]; intros s H1 H2; [exact I|].
  cbn [skip_spaces_to]. apply wp_bind. apply wp_ret. apply wp_bind. apply wp_col. cbn [orb].
  destruct (N.ltb (m_col (sc_mark s)) indent) eqn:E; cbn [negb].
  - apply N.ltb_lt in E. apply wp_bind. apply (wp_peek cap cap_ge); [lia|]. intros c.
    destruct (N.eqb c 32); [|apply wp_ret; exact H1].
    apply wp_bind. apply wp_skip_blank_col. intros s1 B1 C1. unfold coln in *.
    apply IH; [|rewrite C1]; lia.
  - apply wp_ret. exact H1.
Qed.

(* check_buf = true: [buf_is_empty] is asked before every [peek] *)
Lemma safe_skip_spaces_check indent (Q : unit -> st -> Prop) : (forall s', Q tt s') ->
  forall fuel s, wp (skip_spaces_to bo fuel indent true) Q s.
Proof.
  intros HQ. induction fuel as [|fuel IH]; intros s; [exact I|].
  cbn [skip_spaces_to]. apply wp_bind. apply wp_buf_is_empty. apply wp_bind. apply wp_col.
  destruct (Nat.eqb (bl s) 0) eqn:E; cbn [orb]; [apply wp_ret, HQ|]. apply Nat.eqb_neq in E.
  destruct (N.ltb (m_col (sc_mark s)) indent); cbn [negb]; [|apply wp_ret, HQ].
  apply wp_bind. apply (wp_peek cap cap_ge); [lia|]. intros c.
  destruct (N.eqb c 32); [|apply wp_ret, HQ].
  apply wp_bind. apply (wp_skip_blank cap cap_ge). intros s1 _ _. apply IH.
Qed.

(* ---------------- (3) skip_block_scalar_indent ----------------
   narrow path ([indent < cap - 2]): [look cap] buffers [cap] characters, [skip_spaces_to … false] consumes at most
   [indent <= cap - 3] of them, so at least 3 remain for [next_is is_break] / [skip_break];
   wide path: every round refills the buffer and [skip_spaces_to … true] checks [buf_is_empty] before each peek; the
   final [look 2] re-establishes two buffered characters;
   panic 121 ([bufmaxlen < 2]) is unreachable since [cap >= 8].
   On return at least two characters are buffered. *)
Lemma safe_skip_bsi F indent : forall fuel breaks s,
  wp (skip_block_scalar_indent bo F fuel indent breaks) (fun _ s' => 2 <= bl s') s.
Proof.
  induction fuel as [|fuel IH]; intros breaks s; [exact I|].
  rewrite sbsi_eq. unfold bs_spp. change (bufmaxlen bo) with cap.
  apply wp_bind. destruct (Nat.ltb cap 2) eqn:E; [apply Nat.ltb_lt in E; lia|]. apply wp_ret.
  apply wp_bind.
  apply wp_mono with (Q := fun _ s1 => 2 <= bl s1).
  - destruct (N.ltb indent (N.of_nat (cap - 2))) eqn:E2.
    + apply N.ltb_lt in E2. apply wp_bind. apply (wp_look cap cap_ge); [lia|]. intros s1 _ B1 _ _.
      eapply wp_mono; [apply (safe_skip_spaces_nocheck 2 indent F s1); lia|].
      cbv beta. intros _ s2 B2. lia.
    + apply wp_bind.
      * assert (Hw : forall f s1, wp (bs_wide bo F indent f) (fun _ _ => True) s1).
        { induction f as [|f IHf]; intros s1; [exact I|].
          cbn [bs_wide]. change (bufmaxlen bo) with cap.
          apply wp_bind. apply (wp_look cap cap_ge); [lia|]. intros s2 _ _ _ _.
          apply wp_bind. apply safe_skip_spaces_check. intros s3.
          apply wp_bind. apply wp_col. apply wp_bind. apply wp_buf_is_empty.
          apply wp_bind.
          apply wp_mono with (Q := fun _ s4 => s4 = s3).
          - destruct (Nat.eqb (bl s3) 0) eqn:E3; [apply wp_ret; reflexivity|].
            apply Nat.eqb_neq in E3. apply (wp_peek cap cap_ge); [lia|]. reflexivity.
          - intros c s4 ->.
            destruct (N.eqb (m_col (sc_mark s3)) indent || negb (Nat.eqb (bl s3) 0) && negb (N.eqb c 32));
              [apply wp_ret; exact I|apply IHf]. }
        eapply wp_mono; [apply Hw|]. cbv beta. intros _ s1 _.
        apply (wp_look cap cap_ge); [lia|]. intros s2 _ B2 _ _. exact B2.
  - intros _ s1 B1. apply wp_bind. apply wp_next_is_val; [lia|].
    destruct (is_break (bnth s1 0)) eqn:Eb.
    + apply wp_bind. apply (wp_skip_break cap cap_ge); [exact B1|exact Eb|]. intros s2 _ _. apply IH.
    + apply wp_ret. exact B1.
Qed.

(* (4) skip_first_line_indent *)
Lemma safe_sfli F : forall fuel maxi breaks s,
  wp (skip_first_line_indent bo F fuel maxi breaks) (fun _ s' => 1 <= bl s') s.
Proof.
  induction fuel as [|fuel IH]; intros maxi breaks s; [exact I|].
  rewrite sfli_eq. apply wp_bind.
  - assert (Hsp : forall f s1, wp (bs_sfl bo f) (fun _ s' => 1 <= bl s') s1).
    { induction f as [|f IHf]; intros s1; [exact I|].
      cbn [bs_sfl]. apply wp_bind. apply (wp_look_ch cap cap_ge). intros c s2 _ B2 _.
      destruct (N.eqb c 32); [|apply wp_ret; exact B2].
      apply wp_bind. apply (wp_skip_blank cap cap_ge). intros s3 _ _. apply IHf. }
    eapply wp_mono; [apply Hsp|]. cbv beta. intros _ s1 B1. clear Hsp.
    apply wp_bind. apply wp_col. apply wp_bind. apply wp_next_is_val; [exact B1|].
    destruct (is_break (bnth s1 0)) eqn:Eb.
    + apply wp_bind. apply (wp_look cap cap_ge); [lia|]. intros s2 _ B2 _ V2.
      apply wp_bind. apply (wp_skip_break cap cap_ge); [exact B2|rewrite V2; [exact Eb|lia]|]. intros s3 _ _.
      apply IH.
    + apply wp_ret. exact B1.
Qed.

(* (5) scan_block_scalar *)
Theorem safe_scan_block_scalar : spec_scan_block_scalar cap.
Proof.
  intros F literal s0 _. apply wp_post_keeps; [apply ScanFrame.Fr_scan_block_scalar|]. unfold scan_block_scalar.
  apply wp_bind. apply wp_mark.
  apply wp_bind. apply (wp_skip_non_blank cap cap_ge). intros s1 _ _.
  apply wp_bind. unfold unroll_non_block_indents. apply wp_modify.
  apply wp_bind. apply (wp_look_ch cap cap_ge). intros c s3 _ B3 _.
  (* the header: chomping and indentation indicators, in either order *)
  apply wp_bind. apply wp_mono with (Q := fun _ _ => True).
  { destruct (N.eqb c 43 || N.eqb c 45).
    - apply wp_bind. apply (wp_skip_non_blank cap cap_ge). intros s4 _ _.
      apply wp_bind. apply (wp_look cap cap_ge); [lia|]. intros s5 _ B5 _ _.
      apply wp_bind. apply (wp_peek cap cap_ge); [exact B5|]. intros d.
      destruct (is_digit d); [|apply wp_ret; exact I].
      destruct (N.eqb d 48); [apply wp_fail|].
      apply wp_bind. apply (wp_skip_non_blank cap cap_ge). intros s6 _ _. apply wp_ret. exact I.
    - destruct (is_digit c); [|apply wp_ret; exact I].
      destruct (N.eqb c 48); [apply wp_fail|].
      apply wp_bind. apply (wp_skip_non_blank cap cap_ge). intros s4 _ _.
      apply wp_bind. apply (wp_look cap cap_ge); [lia|]. intros s5 _ B5 _ _.
      apply wp_bind. apply (wp_peek cap cap_ge); [exact B5|]. intros d.
      destruct (N.eqb d 43 || N.eqb d 45); [|apply wp_ret; exact I].
      apply wp_bind. apply (wp_skip_non_blank cap cap_ge). intros s6 _ _. apply wp_ret. exact I. }
  clear dependent s3. clear s1 c. intros [chomp increment] s1 _. lazy beta iota.
  (* rest of the header line *)
  apply wp_bind. eapply wp_mono; [apply H_ws|]. intros _ s2 _.
  apply wp_bind. apply (wp_look cap cap_ge); [lia|]. intros s3 _ B3 _ _.
  apply wp_bind. apply (wp_peek_val cap cap_ge); [exact B3|].
  destruct (is_breakz (bnth s3 0)); cbn [negb]; [|apply wp_fail].
  apply wp_bind. apply wp_mono with (Q := fun _ _ => True).
  { destruct (is_break (bnth s3 0)) eqn:Eb; [|apply wp_ret; exact I].
    apply wp_bind. apply (wp_look cap cap_ge); [lia|]. intros s4 _ B4 _ V4.
    apply wp_bind. apply (wp_skip_break cap cap_ge); [exact B4|rewrite V4; [exact Eb|lia]|]. intros s5 _ _.
    apply wp_ret. exact I. }
  clear dependent s3. clear s1 s2. intros cbreak s1 _.
  apply wp_bind. apply (wp_look_ch cap cap_ge). intros c s2 _ B2 _.
  destruct (N.eqb c 9); [apply wp_fail|].
  apply wp_bind. apply wp_get.
  (* the indentation of the first content line *)
  match goal with |- wp (bind (if N.eqb ?i 0 then _ else _) _) _ _ => set (indent0 := i) end.
  apply wp_bind. apply wp_mono with (Q := fun _ s3 => 1 <= bl s3).
  { destruct (N.eqb indent0 0).
    - apply wp_bind. eapply wp_mono; [apply safe_sfli|]. cbv beta. intros r s3 B3.
      apply wp_ret. exact B3.
    - apply wp_bind. eapply wp_mono; [apply safe_skip_bsi|]. cbv beta. intros r s3 B3.
      apply wp_ret. lia. }
  intros [indent tbreaks] s3 B3. lazy beta iota.
  apply wp_bind. apply (wp_next_is cap cap_ge); [exact B3|]. intros z.
  apply wp_bind. apply wp_get.
  destruct z; [apply wp_ret; lia|].
  (* "wrongly indented" check *)
  apply wp_bind. apply wp_mono with (Q := fun _ s4 => 1 <= bl s4).
  { dif; [|apply wp_ret; exact B3].
    apply wp_bind. apply (wp_look cap cap_ge); [lia|]. intros s4 _ B4 _ _.
    apply wp_bind. apply (wp_next_is_document_indicator cap cap_ge); [exact B4|]. intros di.
    apply wp_ret. lia. }
  intros wrong s4 B4. destruct wrong; [apply wp_fail|].
  apply wp_bind. apply wp_get.
  (* the main loop: one content line per round; invariant: one character is buffered at the head of the loop *)
  apply wp_bind.
  - match goal with |- wp (?g F [] 0%N tbreaks false) _ _ =>
      assert (Hgo : forall f acc lb tb ldb s5, 1 <= bl s5 ->
                wp (g f acc lb tb ldb) (fun _ s' => 1 <= bl s') s5) end.
    { induction f as [|f IH]; intros acc lb tb ldb s5 B5; [exact I|].
      lazy beta iota.
      apply wp_bind. apply wp_col. apply wp_bind. apply (wp_next_is cap cap_ge); [exact B5|]. intros z.
      dif; [apply wp_ret; exact B5|].
      apply wp_bind. apply wp_mono with (Q := fun _ s6 => 1 <= bl s6).
      { destruct (N.eqb indent 0); [|apply wp_ret; exact B5].
        apply wp_bind. apply (wp_look cap cap_ge); [lia|]. intros s6 _ B6 _ _.
        apply (wp_next_is_document_indicator cap cap_ge); [exact B6|]. intros r. lia. }
      intros de s6 B6. destruct de; [apply wp_ret; exact B6|].
      apply wp_bind. apply (wp_next_is cap cap_ge); [exact B6|]. intros trailing_blank.
      apply wp_bind. eapply wp_mono; [apply safe_content_line|]. cbv beta. intros acc1 s7 V7.
      apply wp_bind. apply wp_look_hd; [lia|]. intros s8 B8 V8.
      apply wp_bind. apply wp_next_is_val; [lia|].
      rewrite <- V8, shead_bnth in V7 by lia. unfold is_breakz in V7.
      destruct (is_z (bnth s8 0)); [apply wp_ret; lia|].
      rewrite orb_false_r in V7.
      apply wp_bind. apply (wp_skip_break cap cap_ge); [exact B8|exact V7|]. intros s9 _ _.
      apply wp_bind. eapply wp_mono; [apply safe_skip_bsi|]. cbv beta. intros tb1 s10 B10.
      apply IH; lia. }
    eapply wp_mono; [apply Hgo; assumption|]. cbv beta. clear Hgo. intros [[acc lb] tb] s5 B5. lazy beta iota.
    apply wp_bind. apply (wp_next_is cap cap_ge); [exact B5|]. intros z.
    apply wp_bind. apply wp_col. apply wp_bind. apply wp_mark. apply wp_ret. lia.
Qed.
End Block.

Check safe_scan_block_scalar.
Print Assumptions safe_scan_block_scalar.
