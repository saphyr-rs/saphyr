(* How [simpl] and [cbn] are to treat the scanner model while a scan is followed step by step on a state in normal
   form: the monad and the state updates unfold as soon as they are applied to a state, arithmetic on positions and
   every function that fetches a token stay folded until a lemma about them is used. *)
From Coq Require Import NArith ZArith.
Require Import SBase SPrim SScalar SFetch.

Arguments N.add : simpl never.
Arguments N.sub : simpl never.
Arguments N.mul : simpl never.
Arguments Z.of_N : simpl never.
Arguments Z.ltb : simpl never.
Arguments Z.leb : simpl never.
Arguments Z.eqb : simpl never.
Arguments bind {I A B} m f s /.
Arguments ret {I A} a s /.
Arguments get {I} s /.
Arguments put {I} s _ /.
Arguments modify {I} f s /.
Arguments gets {I A} f s /.
Arguments fail {I A} site m _ /.
Arguments upd {I} s i m t /.
Arguments set_in {I} i s /.
Arguments set_mark {I} m s /.
Arguments set_tokens {I} t s /.
Arguments set_flags {I} s ss se adj ska ta lws /.
Arguments set_ska {I} b s /.
Arguments set_lws {I} b s /.
Arguments set_adj {I} n s /.
Arguments set_ta {I} b s /.
Arguments set_ss {I} b s /.
Arguments set_se {I} b s /.
Arguments set_struct {I} s sks ind inds fl tp ifms /.
Arguments set_sks {I} l s /.
Arguments set_indent {I} z l s /.
Arguments set_fl {I} n s /.
Arguments set_tp {I} n s /.
Arguments set_ifms {I} l s /.
Arguments skip_to_next_token : simpl never.
Arguments stale_simple_keys : simpl never.
Arguments scan_plain_scalar : simpl never.
Arguments fetch_stream_start : simpl never.
Arguments fetch_stream_end : simpl never.
Arguments fetch_directive : simpl never.
Arguments fetch_document_indicator : simpl never.
Arguments fetch_flow_collection_start : simpl never.
Arguments fetch_flow_collection_end : simpl never.
Arguments fetch_flow_entry : simpl never.
Arguments fetch_block_entry : simpl never.
Arguments fetch_key : simpl never.
Arguments fetch_value : simpl never.
Arguments fetch_flow_value : simpl never.
Arguments fetch_anchor : simpl never.
Arguments fetch_tag : simpl never.
Arguments fetch_block_scalar : simpl never.
Arguments fetch_flow_scalar : simpl never.
Arguments fetch_plain_scalar : simpl never.
Arguments fetch_next_token : simpl never.
Arguments fetch_more_tokens : simpl never.
Arguments next_token : simpl never.
Arguments scan_all : simpl never.
