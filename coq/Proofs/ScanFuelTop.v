(* C01, bounded work - assembly (SCANFUEL.md): with the fuel that run_str hands out (F = 2 * length + 10 for every
   loop, 4 * F + 20 scanner iterations, 4 * tokens + 40 parser steps) neither the scanner nor the parser model ever
   stops because the fuel ran out: the fuel, which is affine in the input length, is never the reason a run ends.
   The nine character-level fuel contracts of ScanFuel.v are hypotheses of the Section (proved in the other
   ScanFuel*.v files); the frame lemmas come from ScanFuelFrame.v, the parser potential from ScanFuelParse.v. *)
From Coq Require Import List NArith ZArith Bool Arith Lia.
Import ListNotations.
Require Import Parser SBase SPrim SDir SScalar SFetch Pipe.
Require Import ScanRun ScanFuel ScanFuelFrameDef ScanFuelFrame ScanFuelFetch ScanFuelParse.
Require DocRun.
Local Open Scope nat_scope.

(* scan_all delivers at most one token per unit of its fuel *)
Lemma scan_all_length {I} (ops : InputOps I) F : forall n s acc,
  length (fst (scan_all ops F n s acc)) <= n + length acc.
Proof.
  induction n as [|n IH]; intros s acc; cbn [scan_all].
  - cbn [fst]. rewrite rev_length. lia.
  - destruct (next_token ops F s) as [[[t|] s']| | |]; cbn [fst]; try (rewrite rev_length; lia).
    specialize (IH s' (t :: acc)). cbn [length] in IH. lia.
Qed.

(* the parser half alone, for any token list and any way the scan ended (no hypothesis) *)
Theorem parse_tokens_fuel_suffices : forall toks se keep fuel, 4 * length toks + 2 <= fuel -> se <> SFuel ->
  snd (parse_all fuel {| p_toks := toks; p_token := None; p_states := []; p_state := SStreamStart;
                         p_anchors := []; p_anchor_id := 1%N; p_tags := []; p_keep_tags := keep |} se []) <> PFuel.
Proof. intros toks se keep fuel Hf Hse. apply parse_all_no_fuel; [|exact Hse]. rewrite pmu_init. lia. Qed.

(* the parser half of [run_str]: the scanner delivers at most 4 * F + 20 tokens, the parser is given
   4 * (4 * F + 20) + 40 steps and needs at most 4 * tokens + 1 *)
Lemma run_str_fuel_of_scan (orig : list N) :
  (let F := 2 * length orig + 10 in
   snd (scan_all str_ops F (4 * F + 20) (init_sc {| si_chars := orig; si_look := 0 |}) []) <> SFuel) ->
  snd (run_str orig) <> PFuel.
Proof.
  cbv zeta. intros HS. rewrite DocRun.run_str_parse.
  pose proof (scan_all_length str_ops (2 * length orig + 10) (4 * (2 * length orig + 10) + 20)
                (init_sc {| si_chars := orig; si_look := 0 |}) []) as HL.
  apply parse_tokens_fuel_suffices; [cbn [length] in HL; lia|exact HS].
Qed.

Section FuelTop.
Hypothesis H_stnt : fuel_skip_to_next_token.
Hypothesis H_ws : fuel_skip_ws_to_eol.
Hypothesis H_yw : fuel_skip_yaml_whitespace.
Hypothesis H_dir : fuel_scan_directive.
Hypothesis H_tag : fuel_scan_tag.
Hypothesis H_anchor : fuel_scan_anchor.
Hypothesis H_flow : fuel_scan_flow_scalar.
Hypothesis H_plain : fuel_scan_plain_scalar.
Hypothesis H_block : fuel_scan_block_scalar.

(* (1) one call of fetch_next_token never runs out of fuel; it is the stream-start step, or consumes a character,
   or is the stream-end step *)
Theorem fetch_next_token_never_out_of_fuel : forall F s, fuel_ok F s -> fwp (fetch_next_token str_ops F) (fnt_post s) s.
Proof using H_stnt H_ws H_yw H_dir H_tag H_anchor H_flow H_plain H_block.
  intros F s FO.
  exact (fw_fetch_next_token H_stnt H_ws H_yw H_dir H_tag H_anchor H_flow H_plain H_block
           (frames_skip_to_next_token str_ops) (frames_skip_ws_to_eol str_ops) (frames_skip_yaml_whitespace str_ops)
           (frames_scan_directive str_ops) (frames_scan_tag str_ops) (frames_scan_anchor str_ops)
           (frames_scan_flow_scalar str_ops) (frames_scan_plain_scalar str_ops) (frames_scan_block_scalar str_ops)
           F s FO).
Qed.

Lemma next_token_fuel F B s : GI F B s ->
  fwp (next_token str_ops F)
      (fun o s' => (sc_stream_end s' = true \/ GI F B s') /\ (o <> None -> tpn s' = tpn s + 1 /\ tpn s' <= B)) s.
Proof using H_stnt H_ws H_yw H_dir H_tag H_anchor H_flow H_plain H_block.
  exact (fw_next_token H_stnt H_ws H_yw H_dir H_tag H_anchor H_flow H_plain H_block
           (frames_skip_to_next_token str_ops) (frames_skip_ws_to_eol str_ops) (frames_skip_yaml_whitespace str_ops)
           (frames_scan_directive str_ops) (frames_scan_tag str_ops) (frames_scan_anchor str_ops)
           (frames_scan_flow_scalar str_ops) (frames_scan_plain_scalar str_ops) (frames_scan_block_scalar str_ops)
           F B s).
Qed.

(* (2) the iteration: every call hands out one token, and at most B tokens are ever handed out *)
Lemma scan_all_fuel F B : forall fuel s acc,
  (sc_stream_end s = true \/ GI F B s) -> tpn s <= B -> B + 1 <= fuel + tpn s ->
  snd (scan_all str_ops F fuel s acc) <> SFuel.
Proof using H_stnt H_ws H_yw H_dir H_tag H_anchor H_flow H_plain H_block.
  induction fuel as [|fuel IH]; intros s acc HI HT HF; [lia|]. cbn [scan_all].
  destruct HI as [SE|G].
  - rewrite (next_token_ended str_ops F s SE). cbn [snd]. discriminate.
  - pose proof (next_token_fuel F B s G) as W. unfold fwp in W.
    destruct (next_token str_ops F s) as [[[t|] s']| | |]; cbn [snd]; try discriminate; [|contradiction W].
    destruct W as [HI' HT']. destruct (HT' ltac:(discriminate)) as [T1 T2].
    apply IH; [exact HI'|exact T2|lia].
Qed.

Lemma gi_init orig : GI (2 * length orig + 10) (5 * length orig + 2) (init_sc {| si_chars := orig; si_look := 0 |}).
Proof using.
  split.
  - unfold fuel_ok, rl, frem. cbn [init_sc sc_in si_chars]. lia.
  - right. unfold phi, tpn, rl, frem, sst. cbn [init_sc sc_in si_chars sc_tokens sc_tokens_parsed sc_indents sc_stream_start length npend N.to_nat]. lia.
Qed.

Theorem scan_all_never_out_of_fuel : forall orig,
  let F := 2 * length orig + 10 in
  snd (scan_all str_ops F (4 * F + 20) (init_sc {| si_chars := orig; si_look := 0 |}) []) <> SFuel.
Proof using H_stnt H_ws H_yw H_dir H_tag H_anchor H_flow H_plain H_block.
  intros orig F. apply (scan_all_fuel F (5 * length orig + 2)).
  - right. apply gi_init.
  - unfold tpn. cbn [init_sc sc_tokens_parsed N.to_nat]. lia.
  - unfold tpn. cbn [init_sc sc_tokens_parsed N.to_nat]. subst F. lia.
Qed.

(* (3) the whole pipeline *)
Theorem run_str_never_out_of_fuel : forall orig, snd (run_str orig) <> PFuel.
Proof using H_stnt H_ws H_yw H_dir H_tag H_anchor H_flow H_plain H_block.
  intros orig. apply run_str_fuel_of_scan. exact (scan_all_never_out_of_fuel orig).
Qed.

End FuelTop.

Print Assumptions fetch_next_token_never_out_of_fuel.
Print Assumptions scan_all_never_out_of_fuel.
Print Assumptions run_str_never_out_of_fuel.
Print Assumptions parse_tokens_fuel_suffices.
