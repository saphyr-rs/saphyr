(* C12/C14: facts about the position recount [pos_go]. *)
From Coq Require Import List NArith Bool Arith Lia.
Import ListNotations.
Require Import Positions ListKit.
Open Scope N_scope.

(* the position after a CR-free prefix, computed by a plain left-to-right count *)
Fixpoint count_from (pre : list N) (line col : N) : N * N :=
  match pre with
  | [] => (line, col)
  | c :: r => if c =? 10 then count_from r (line + 1) 0 else count_from r line (col + 1)
  end.

Lemma pos_go_count s : Forall (fun c => c <> 13) s -> forall n line col,
  pos_go s n line col = count_from (firstn n s) line col.
Proof.
  induction 1 as [|c r Hc Hr IH]; intros n line col.
  - destruct n; reflexivity.
  - destruct n as [|n]; [reflexivity|]. cbn [pos_go firstn count_from].
    destruct (N.eqb_spec c 13) as [->|_]; [congruence|].
    destruct (c =? 10); apply IH.
Qed.

(* on one line, the column is the number of characters since its start *)
Lemma count_from_nobreak pre : Forall (fun c => c <> 10) pre -> forall line col,
  count_from pre line col = (line, col + N.of_nat (length pre)).
Proof.
  induction 1 as [|c r Hc Hr IH]; intros line col; cbn [count_from length].
  - f_equal. lia.
  - destruct (N.eqb_spec c 10) as [->|_]; [congruence|]. rewrite IH. f_equal. lia.
Qed.

Lemma count_from_app a b line col :
  count_from (a ++ b) line col = let '(l, c) := count_from a line col in count_from b l c.
Proof.
  revert line col; induction a as [|x a IH]; intros line col; cbn [app count_from]; [reflexivity|].
  destruct (x =? 10); apply IH.
Qed.

(* complete lines move the line counter by one each and reset the column *)
Definition is_line (l : list N) : Prop := exists body, l = body ++ [10] /\ Forall (fun c => c <> 10) body.
Lemma count_from_lines ls : Forall is_line ls -> forall line col,
  count_from (concat ls) line col = (if (length ls =? 0)%nat then (line, col) else (line + N.of_nat (length ls), 0)).
Proof.
  induction 1 as [|l ls [body [-> Hb]] Hls IH]; intros line col; [reflexivity|].
  cbn [concat length]. rewrite count_from_app, count_from_app, (count_from_nobreak body Hb).
  cbn [count_from]. change (10 =? 10) with true. cbv iota. rewrite IH.
  destruct ls as [|l2 ls]; cbn [length Nat.eqb]; f_equal; lia.
Qed.

(* The statement in the property's words: in a CR-free input made of [ls] complete lines followed by a partial
   line [cur], the position of the j-th character of [cur] is line 1 + |ls|, column j. *)
Theorem pos_line_col ls cur rest j :
  Forall is_line ls -> Forall (fun c => c <> 13) (concat ls ++ cur ++ rest) ->
  Forall (fun c => c <> 10) cur -> (j <= length cur)%nat ->
  pos_at (concat ls ++ cur ++ rest) (N.of_nat (length (concat ls) + j)) = (1 + N.of_nat (length ls), N.of_nat j).
Proof.
  intros Hls Hcr Hcur Hj. unfold pos_at. rewrite Nat2N.id. rewrite (pos_go_count _ Hcr).
  rewrite firstn_app_2. rewrite count_from_app, (count_from_lines ls Hls).
  assert (Hf : firstn j (cur ++ rest) = firstn j cur).
  { rewrite firstn_app. replace (j - length cur)%nat with 0%nat by lia. cbn. apply app_nil_r. }
  rewrite Hf.
  assert (Hn : Forall (fun c => c <> 10) (firstn j cur)).
  { apply Forall_forall. intros x Hx. rewrite Forall_forall in Hcur. apply Hcur. eapply in_firstn; eauto. }
  destruct ls as [|l ls]; cbn [length Nat.eqb]; rewrite (count_from_nobreak _ Hn), firstn_length_le by lia; f_equal; lia.
Qed.

