(* C16 — scanner + parser composed at TEXT level: the parts.

   The scanner model (string back-end) token by token on the document line `--- <tag> x` from any top-level state
   at column 0 ([scan_all_doc_line]) and on a %TAG line ([fetch_tag_directive]); the parser model from the tag token
   on ([parse_from_content]); the spellings of a tag with what the scanner reports for each ([tag_spelling_scans]);
   the generated character classes as the productions of the specification ([char_classes]); the scanner half in the
   words of the specification ([scan_tag_text], [scan_directive_text]).  Proofs/TagLines.v composes them for any
   number of %TAG lines. *)
From Coq Require Import List NArith ZArith Bool Lia.
Import ListNotations.
Require Import Parser TagSpec SBase SPrim SDir SScalar SFetch Pipe Drivers TagRun TagUtf8 TagScanText TagProofs ScalarKit.
Require Dispatch DispatchTie.
Require Import ScanRun.
Require JsonProofs.
Open Scope N_scope.
Open Scope mon_scope.

(* 1. Top-level scanner states: block context, no indentation, no simple key pending *)
Definition sk0 : simple_key := {| sk_possible := false; sk_required := false; sk_token_number := 0; sk_mark := mk0 |}.

Definition base (toks : list token) (ska : bool) (tp : N) (ta : bool) : sc strin :=
  {| sc_in := {| si_chars := []; si_look := 0 |}; sc_mark := mk0; sc_tokens := toks;
     sc_stream_start := true; sc_stream_end := false; sc_adjacent := 0; sc_ska := ska;
     sc_sks := [sk0]; sc_indent := (-1)%Z; sc_indents := []; sc_flow_level := 0; sc_tokens_parsed := tp;
     sc_token_available := ta; sc_lws := false; sc_ifms := [] |}.

Definition top (l : list N) (lk : nat) (m : marker) (w : bool) (toks : list token) (ska : bool) (tp : N) (ta : bool)
  : sc strin := st l lk m w (base toks ska tp ta).

Lemma get_top : forall l lk m w toks ska tp ta,
  get (top l lk m w toks ska tp ta) = SBase.Ok (top l lk m w toks ska tp ta, top l lk m w toks ska tp ta).
Proof. reflexivity. Qed.
Lemma stale_top : forall l lk m w toks ska tp ta,
  stale_simple_keys (top l lk m w toks ska tp ta) = SBase.Ok (tt, top l lk m w toks ska tp ta).
Proof. reflexivity. Qed.
Lemma remove_sk_top : forall l lk m w toks ska tp ta,
  remove_simple_key (top l lk m w toks ska tp ta) = SBase.Ok (tt, top l lk m w toks ska tp ta).
Proof. reflexivity. Qed.
Lemma disallow_top : forall l lk m w toks ska tp ta,
  disallow_simple_key (top l lk m w toks ska tp ta) = SBase.Ok (tt, top l lk m w toks false tp ta).
Proof. reflexivity. Qed.
Lemma save_sk_top : forall l lk m w toks tp ta,
  save_simple_key (top l lk m w toks false tp ta) = SBase.Ok (tt, top l lk m w toks false tp ta).
Proof. reflexivity. Qed.
Lemma push_tok_top : forall t l lk m w toks ska tp ta,
  push_tok t (top l lk m w toks ska tp ta) = SBase.Ok (tt, top l lk m w (toks ++ [t]) ska tp ta).
Proof. reflexivity. Qed.
Lemma unroll_top : forall z l lk m w toks ska tp ta, (z <? -1)%Z = false ->
  unroll_indent z (top l lk m w toks ska tp ta) = SBase.Ok (tt, top l lk m w toks ska tp ta).
Proof.
  intros z l lk m w toks ska tp ta H. unfold unroll_indent, bind, get, top. cbn. rewrite H. reflexivity.
Qed.
Lemma unroll_top_col : forall c l lk m w toks ska tp ta,
  unroll_indent (Z.of_N c) (top l lk m w toks ska tp ta) = SBase.Ok (tt, top l lk m w toks ska tp ta).
Proof. intros. apply unroll_top. apply Z.ltb_ge. lia. Qed.

Lemma within_block_top : forall l lk m w toks ska tp ta,
  is_within_block (top l lk m w toks ska tp ta) = SBase.Ok (false, top l lk m w toks ska tp ta).
Proof. reflexivity. Qed.
Lemma get_any : forall (s : sc strin), get s = SBase.Ok (s, s).
Proof. reflexivity. Qed.

Ltac top_eq :=
  lazymatch goal with
  | |- get _ = _ => apply get_any
  | |- stale_simple_keys _ = _ => apply stale_top
  | |- remove_simple_key _ = _ => apply remove_sk_top
  | |- disallow_simple_key _ = _ => apply disallow_top
  | |- save_simple_key _ = _ => apply save_sk_top
  | |- push_tok _ _ = _ => apply push_tok_top
  | |- unroll_indent _ _ = _ => first [apply unroll_top_col | apply unroll_top; reflexivity]
  | |- is_within_block _ = _ => apply within_block_top
  | |- next_is _ _ _ = _ => apply next_is_st
  | _ => prim_eq
  end.
Ltac tstep := rewrite ?bind_assoc; erewrite bind_Ok; [|top_eq]; cbv beta.
(* projections of a state in top form *)
Ltac fld :=
  cbn [SBase.sc_in SBase.sc_mark SBase.sc_tokens SBase.sc_stream_start SBase.sc_stream_end SBase.sc_adjacent
       SBase.sc_ska SBase.sc_sks SBase.sc_indent SBase.sc_indents SBase.sc_flow_level SBase.sc_tokens_parsed
       SBase.sc_token_available SBase.sc_lws SBase.sc_ifms st base top set_lws set_flags set_mark set_in upd
       si_chars si_look].

(* skip_to_next_token at a character that is not a blank, a break or '#' *)
Lemma skip_to_next_token_none : forall F c l lk m w toks ska tp ta,
  F <> 0%nat -> c <> 9 -> c <> 32 -> c <> 10 -> c <> 13 -> c <> 35 ->
  skip_to_next_token str_ops F (top (c :: l) lk m w toks ska tp ta)
  = SBase.Ok (tt, top (c :: l) (Nat.max lk 1) m w toks ska tp ta).
Proof.
  intros F c l lk m w toks ska tp ta HF H9 H32 H10 H13 H35. destruct F as [|F]; [contradiction|].
  unfold top. cbn [skip_to_next_token]. tstep. cbn [nth]. tstep. tstep.
  rewrite (proj2 (N.eqb_neq _ _) H9), (proj2 (N.eqb_neq _ _) H32), (proj2 (N.eqb_neq _ _) H10),
          (proj2 (N.eqb_neq _ _) H13), (proj2 (N.eqb_neq _ _) H35). reflexivity.
Qed.

(* ... at the end of input *)
Lemma skip_to_next_token_eof : forall F lk m w toks ska tp ta,
  F <> 0%nat ->
  skip_to_next_token str_ops F (top [] lk m w toks ska tp ta) = SBase.Ok (tt, top [] (Nat.max lk 1) m w toks ska tp ta).
Proof. intros F lk m w toks ska tp ta HF. destruct F as [|F]; [contradiction|]. reflexivity. Qed.

(* ... at one space followed by such a character *)
Lemma skip_to_next_token_space : forall F c l lk m w toks ska tp ta,
  (2 <= F)%nat -> c <> 9 -> c <> 32 -> c <> 10 -> c <> 13 -> c <> 35 ->
  skip_to_next_token str_ops F (top (32 :: c :: l) lk m w toks ska tp ta)
  = SBase.Ok (tt, top (c :: l) (Nat.max lk 1) (adv 1 m) w toks ska tp ta).
Proof.
  intros F c l lk m w toks ska tp ta HF H9 H32 H10 H13 H35. destruct F as [|F]; [lia|].
  unfold top. cbn [skip_to_next_token]. tstep. cbn [nth]. tstep. tstep.
  change (32 =? 9) with false. change (32 =? 32) with true. cbn [andb orb]. tstep. cbn [tl].
  refine (eq_trans (skip_to_next_token_none F c l _ _ w toks ska tp ta ltac:(lia) H9 H32 H10 H13 H35) _).
  unfold top. rewrite <- Nat.max_assoc, Nat.max_id. reflexivity.
Qed.

(* 2. One token at a time *)
Definition m1 : marker := {| m_index := 0; m_line := 1; m_col := 0 |}.

Lemma next_token_init : forall F text, (2 <= F)%nat ->
  next_token str_ops F (init_sc {| si_chars := text; si_look := 0 |})
  = SBase.Ok (Some (span_empty m1, TStreamStart), top text 1 m1 true [] true 1 false).
Proof. intros F text HF. destruct F as [|[|F]]; [lia|lia|]. reflexivity. Qed.

(* delivering the one token that a fetch from the empty queue has produced; the token that ends the stream also
   sets [stream_end] *)
Lemma deliver_last : forall (t : token) (s : sc strin),
  ((match snd t with TStreamEnd => modify (set_se true) | _ => ret tt end) ;;; ret (Some t)) s
  = SBase.Ok (Some t, match snd t with TStreamEnd => set_se true s | _ => s end).
Proof. intros t s. destruct (snd t); reflexivity. Qed.

(* one token is queued and no simple key is possible: it can be delivered *)
Lemma fetch_more_tokens_enough : forall F0 F l lk m w t ska tp,
  fetch_more_tokens str_ops F0 (S F) (top l lk m w [t] ska tp false) = SBase.Ok (tt, top l lk m w [t] ska tp true).
Proof. reflexivity. Qed.

Lemma next_token_fetched : forall F l lk m w ska tp t l' lk' m' w' ska',
  (2 <= F)%nat ->
  fetch_next_token str_ops F (top l lk m w [] ska tp false) = SBase.Ok (tt, top l' lk' m' w' [t] ska' tp false) ->
  next_token str_ops F (top l lk m w [] ska tp false)
  = SBase.Ok (Some t, match snd t with
                      | TStreamEnd => set_se true (top l' lk' m' w' [] ska' (tp + 1) false)
                      | _ => top l' lk' m' w' [] ska' (tp + 1) false
                      end).
Proof.
  intros F l lk m w ska tp t l' lk' m' w' ska' HF H. destruct F as [|F]; [lia|].
  unfold next_token. erewrite bind_Ok; [|apply get_any]. fld. cbv iota.
  cbn [fetch_more_tokens]. rewrite bind_assoc. erewrite bind_Ok; [|apply get_any]. fld.
  rewrite bind_assoc. erewrite bind_Ok; [|apply ret_st]. cbv iota.
  rewrite bind_assoc. erewrite bind_Ok; [|exact H].
  destruct F as [|F]; [lia|]. erewrite bind_Ok; [|apply fetch_more_tokens_enough]. erewrite bind_Ok; [|apply get_any]. fld.
  erewrite bind_Ok; [|reflexivity]. apply deliver_last.
Qed.

(* the generic step: if fetching from an empty queue produces exactly one token (and leaves no simple key
   possible), next_token delivers it *)
Lemma next_token_top : forall F l lk m w ska tp t l' lk' m' w' ska',
  (2 <= F)%nat ->
  fetch_next_token str_ops F (top l lk m w [] ska tp false) = SBase.Ok (tt, top l' lk' m' w' [t] ska' tp false) ->
  snd t <> TStreamEnd ->
  next_token str_ops F (top l lk m w [] ska tp false) = SBase.Ok (Some t, top l' lk' m' w' [] ska' (tp + 1) false).
Proof.
  intros F l lk m w ska tp t l' lk' m' w' ska' HF H Hne.
  rewrite (next_token_fetched F _ _ _ _ _ _ _ _ _ _ _ _ HF H). destruct (snd t); try reflexivity. contradiction.
Qed.

(* the last two calls *)
Lemma next_token_end : forall F l lk m w ska tp sp l' lk' m' w' ska',
  (2 <= F)%nat ->
  fetch_next_token str_ops F (top l lk m w [] ska tp false)
    = SBase.Ok (tt, top l' lk' m' w' [(sp, TStreamEnd)] ska' tp false) ->
  exists s', next_token str_ops F (top l lk m w [] ska tp false) = SBase.Ok (Some (sp, TStreamEnd), s')
             /\ next_token str_ops F s' = SBase.Ok (None, s').
Proof.
  intros F l lk m w ska tp sp l' lk' m' w' ska' HF H.
  exists (set_se true (top l' lk' m' w' [] ska' (tp + 1) false)).
  split; [exact (next_token_fetched F _ _ _ _ _ _ _ _ _ _ _ _ HF H)|apply next_token_ended; reflexivity].
Qed.

(* fetch_next_token at top level *)
Lemma z_of_col_lt : forall c, (Z.of_N c <? -1)%Z = false.
Proof. intros c. apply Z.ltb_ge. lia. Qed.

(* everything before the test for the end of input, whatever follows ([k]); how far the blanks reach is the
   caller's [skip_to_next_token_*] *)
Lemma top_prologue : forall F (k : @M strin unit) l0 lk0 m0 w0 toks ska tp ta l lk m w,
  skip_to_next_token str_ops F (top l0 (Nat.max lk0 1) m0 w0 toks ska tp ta) = SBase.Ok (tt, top l lk m w toks ska tp ta) ->
  (look str_ops 1 ;;;
   s <- get ;;
   if negb (sc_stream_start s) then fetch_stream_start else
   skip_to_next_token str_ops F ;;;
   stale_simple_keys ;;;
   m <- mark ;;
   unroll_indent (Z.of_N (m_col m)) ;;;
   look str_ops 4 ;;; k) (top l0 lk0 m0 w0 toks ska tp ta)
  = k (top l (Nat.max lk 4) m w toks ska tp ta).
Proof.
  intros F k l0 lk0 m0 w0 toks ska tp ta l lk m w H. unfold top.
  tstep. tstep. fld. cbn [negb]. erewrite bind_Ok; [|exact H]. unfold top. tstep. tstep. tstep. tstep. reflexivity.
Qed.

(* the end of input *)
Lemma fetch_top_eof : forall F l0 lk0 m0 w0 toks ska tp ta lk m w,
  skip_to_next_token str_ops F (top l0 (Nat.max lk0 1) m0 w0 toks ska tp ta) = SBase.Ok (tt, top [] lk m w toks ska tp ta) ->
  fetch_next_token str_ops F (top l0 lk0 m0 w0 toks ska tp ta)
  = fetch_stream_end (top [] (Nat.max lk 4) m w toks ska tp ta).
Proof.
  intros F l0 lk0 m0 w0 toks ska tp ta lk m w H. rewrite DispatchTie.fetch_next_token_shape, (top_prologue _ _ _ _ _ _ _ _ _ _ _ _ _ _ H).
  unfold top. tstep. reflexivity.
Qed.

(* `%` at column 0 *)
Lemma fetch_top_directive : forall F l0 lk0 m0 w0 toks ska tp ta l lk m w,
  skip_to_next_token str_ops F (top l0 (Nat.max lk0 1) m0 w0 toks ska tp ta) = SBase.Ok (tt, top (37 :: l) lk m w toks ska tp ta) ->
  m_col m = 0 ->
  fetch_next_token str_ops F (top l0 lk0 m0 w0 toks ska tp ta)
  = fetch_directive str_ops F (top (37 :: l) (Nat.max lk 4) m w toks ska tp ta).
Proof.
  intros F l0 lk0 m0 w0 toks ska tp ta l lk m w H Hc.
  rewrite DispatchTie.fetch_next_token_shape, (top_prologue _ _ _ _ _ _ _ _ _ _ _ _ _ _ H).
  unfold top. tstep. cbn [nth]. change (is_z 37) with false. cbv iota.
  tstep. tstep. cbn [nth]. fld. rewrite Hc. change (0 =? 0) with true. change (37 =? 37) with true.
  cbn [andb negb]. cbv iota. tstep. tstep. reflexivity.
Qed.

(* a character to the right of column 0 (so neither a directive nor a document marker): the action that the
   dispatcher of the source names for it *)
Lemma fetch_top_dispatch : forall F l0 lk0 m0 w0 toks ska tp ta c l lk m w a,
  skip_to_next_token str_ops F (top l0 (Nat.max lk0 1) m0 w0 toks ska tp ta) = SBase.Ok (tt, top (c :: l) lk m w toks ska tp ta) ->
  is_z c = false -> (m_col m =? 0) = false ->
  Dispatch.dispatch c (nth 0 l 0) false (m_index m =? 0) = a ->
  fetch_next_token str_ops F (top l0 lk0 m0 w0 toks ska tp ta)
  = DispatchTie.run_dact str_ops F a (top (c :: l) (Nat.max lk 4) m w toks ska tp ta)
      (top (c :: l) (Nat.max lk 4) m w toks ska tp ta).
Proof.
  intros F l0 lk0 m0 w0 toks ska tp ta c l lk m w a H Hz Hc <-.
  rewrite DispatchTie.fetch_next_token_shape, (top_prologue _ _ _ _ _ _ _ _ _ _ _ _ _ _ H).
  unfold top. tstep. cbn [nth]. rewrite Hz. cbv iota.
  tstep. tstep. fld. rewrite Hc. cbn [andb]. cbv iota. tstep. tstep. cbv iota.
  rewrite z_of_col_lt. tstep. tstep. cbn [nth]. rewrite DispatchTie.tbl_dispatch. reflexivity.
Qed.

(* the fetch functions of the tokens that may begin a simple key (none is allowed here): the token is queued *)
Lemma fetch_scanned_top : forall (scan : @M strin token) t l lk m w toks tp ta l' lk' m' w',
  scan (top l lk m w toks false tp ta) = SBase.Ok (t, top l' lk' m' w' toks false tp ta) ->
  (save_simple_key ;;; disallow_simple_key ;;; t <- scan ;; push_tok t) (top l lk m w toks false tp ta)
  = SBase.Ok (tt, top l' lk' m' w' (toks ++ [t]) false tp ta).
Proof.
  intros scan t l lk m w toks tp ta l' lk' m' w' H. tstep. tstep. erewrite bind_Ok; [|exact H]. apply push_tok_top.
Qed.

(* %TAG line *)
Lemma fetch_tag_directive : forall F bl1 h bl2 l t rest lk i ln w ska tp,
  bl1 <> [] -> Forall (fun c => is_blank c = true) bl1 -> dir_handle h ->
  bl2 <> [] -> Forall (fun c => is_blank c = true) bl2 ->
  decodes l t -> prefix_text l ->
  (4 + length bl1 + length h + length bl2 + length l < F)%nat ->
  let m := {| m_index := i; m_line := ln; m_col := 0 |} in
  let n := N.of_nat (4 + length bl1 + length h + length bl2 + length l) in
  exists lk', (lk <= lk')%nat /\
    fetch_next_token str_ops F (top (s_tag_line ++ bl1 ++ h ++ bl2 ++ l ++ 10 :: rest) lk m w [] ska tp false)
    = SBase.Ok (tt, top rest lk' (nlm (adv n m)) true [(mkspan m (adv n m), TTagDirective h t)] false tp false).
Proof.
  intros F bl1 h bl2 l t rest lk i ln w ska tp Hne1 HB1 HH Hne2 HB2 HD HP HL m n.
  unfold s_tag_line. cbn [app].
  erewrite fetch_top_directive; [|apply skip_to_next_token_none; [lia|discriminate..]|reflexivity].
  unfold fetch_directive, top. tstep. tstep. tstep.
  destruct (scan_directive_tag_text F bl1 h bl2 l t rest (Nat.max (Nat.max (Nat.max lk 1) 1) 4) m w (base [] false tp false)
              Hne1 HB1 HH Hne2 HB2 HD HP HL) as [lk' [Hlk E]]. cbv zeta in E.
  exists lk'. split; [lia|]. erewrite bind_Ok; [|exact E]. apply push_tok_top.
Qed.

(* `--- ` at column 0 *)
Lemma next_is_document_start_st : forall c3 r lk m w s, (4 <= lk)%nat ->
  next_is_document_start str_ops (st (45 :: 45 :: 45 :: c3 :: r) lk m w s)
  = SBase.Ok (is_blank_or_breakz c3, st (45 :: 45 :: 45 :: c3 :: r) lk m w s).
Proof.
  intros c3 r lk m w s Hlk. unfold next_is_document_start, next_3_are. rewrite ?bind_assoc.
  erewrite bind_Ok; [|apply assert_buflen_st; exact Hlk]. rewrite ?bind_assoc.
  erewrite bind_Ok; [|apply assert_buflen_st; lia]. mstep. mstep. mstep. mstep. cbn [nth].
  change ((45 =? 45) && (45 =? 45) && (45 =? 45)) with true. cbv iota. mstep. reflexivity.
Qed.

Lemma fetch_document_start : forall F c3 rest lk i ln w ska tp,
  (1 <= F)%nat -> is_blank_or_breakz c3 = true ->
  let m := {| m_index := i; m_line := ln; m_col := 0 |} in
  exists lk', (lk <= lk')%nat /\
  fetch_next_token str_ops F (top (45 :: 45 :: 45 :: c3 :: rest) lk m w [] ska tp false)
  = SBase.Ok (tt, top (c3 :: rest) lk' (adv 3 m) false [(spn m (adv 3 m), TDocumentStart)] false tp false).
Proof.
  intros F c3 rest lk i ln w ska tp HF Hc3 m. exists (Nat.max (Nat.max (Nat.max lk 1) 1) 4). split; [lia|].
  rewrite DispatchTie.fetch_next_token_shape.
  erewrite top_prologue; [|apply skip_to_next_token_none; [lia|discriminate..]].
  unfold top. tstep. cbn [nth]. change (is_z 45) with false. cbv iota.
  tstep. tstep. cbn [nth]. fld. unfold m. cbn [m_col]. change (0 =? 0) with true. change (45 =? 37) with false.
  cbv iota. rewrite ?bind_assoc.
  erewrite bind_Ok; [|apply next_is_document_start_st; lia]. rewrite Hc3. cbn [andb negb]. cbv iota.
  tstep. cbv iota.
  unfold fetch_document_indicator. tstep. tstep. tstep. tstep. tstep. tstep. cbn [skipn].
  apply push_tok_top.
Qed.

Lemma col_adv_pos : forall k m, k <> 0 -> (m_col (adv k m) =? 0) = false.
Proof. intros k [i l c] H. cbn [adv m_col]. apply N.eqb_neq. lia. Qed.

(* what it means that the scanner reads the tag text [ttext] as the tag (h, sfx): for every state whose text
   starts with it, followed by something that may follow a tag *)
Definition tag_scans (F : nat) (ttext h sfx : list N) : Prop :=
  forall rest lk m w s, tag_end (sc_flow_level s) (hd 0 rest) = true ->
  exists lk', (lk <= lk')%nat /\
    scan_tag str_ops F (st (ttext ++ rest) lk m w s)
    = SBase.Ok ((mkspan m (adv (N.of_nat (length ttext)) m), TTag h sfx),
                st rest lk' (adv (N.of_nat (length ttext)) m) false s).

(* one lemma per spelling of a tag *)

Lemma tag_scans_verbatim : forall F l t,
  decodes l t -> Forall (fun c => is_uri_char c = true) l -> (length l < F)%nat ->
  tag_scans F (verbatim_text l) [] t.
Proof.
  intros F l t HD HF HL rest lk m w s HE. unfold verbatim_text.
  destruct (scan_tag_verbatim F l t rest lk m w s HD HF HL HE) as [lk' [Hlk E]].
  exists lk'. split; [exact Hlk|]. cbn [app]. rewrite <- app_assoc. cbn [app].
  refine (eq_trans E _). cbn [length]. rewrite app_length. cbn [length]. fin_eq.
Qed.

Lemma tag_scans_named : forall F name l t,
  Forall (fun c => is_alpha c = true) name -> decodes l t -> Forall (fun c => is_tag_char c = true) l -> l <> [] ->
  (length name + length l < F)%nat ->
  tag_scans F (named_text name l) (named_handle name) t.
Proof.
  intros F name l t HN HD HF Hne HL rest lk m w s HE. unfold named_text, named_handle.
  destruct (scan_tag_named F name l t rest lk m w s HN HD HF Hne HL HE) as [lk' [Hlk E]].
  exists lk'. split; [exact Hlk|]. cbn [app]. rewrite <- !app_assoc. cbn [app].
  refine (eq_trans E _). cbn [length]. rewrite !app_length. cbn [length]. fin_eq.
Qed.

Lemma tag_scans_local : forall F l t,
  decodes l t -> Forall (fun c => is_tag_char c = true) l -> l <> [] -> (length l < F)%nat ->
  tag_scans F (local_text l) [33] t.
Proof.
  intros F l t HD HF Hne HL rest lk m w s HE. unfold local_text.
  destruct (scan_tag_local F l t rest lk m w s HD HF HL HE) as [lk' [Hlk E]].
  exists lk'. split; [exact Hlk|]. cbn [app]. refine (eq_trans E _).
  pose proof (decodes_nonempty _ _ HD Hne) as Ht. destruct t; [contradiction|]. cbn [length]. fin_eq.
Qed.

Lemma tag_scans_nonspecific : forall F, (0 < F)%nat -> tag_scans F [33] [] [33].
Proof.
  intros F HF rest lk m w s HE.
  destruct (scan_tag_local F [] [] rest lk m w s dec_nil ltac:(constructor) HF HE) as [lk' [Hlk E]].
  exists lk'. split; [exact Hlk|]. exact E.
Qed.

(* ` <tag>`, after `---`: the dispatcher sends `!` to fetch_tag *)
Lemma fetch_tag_reduce : forall F ttext rest lk m w tp, (2 <= F)%nat ->
  fetch_next_token str_ops F (top (32 :: 33 :: ttext ++ rest) lk m w [] false tp false)
  = fetch_tag str_ops F (top (33 :: ttext ++ rest) (Nat.max (Nat.max (Nat.max lk 1) 1) 4) (adv 1 m) w [] false tp false).
Proof.
  intros F ttext rest lk m w tp HF.
  erewrite (fetch_top_dispatch F _ _ _ _ _ _ _ _ _ _ _ _ _ Dispatch.DTag);
    [reflexivity|apply skip_to_next_token_space; [lia|discriminate..]|reflexivity|apply col_adv_pos; discriminate|reflexivity].
Qed.

(* ... followed by a blank, a break or the end of input *)
Lemma fetch_tag_gen : forall F ttext h sfx rest lk m w tp,
  tag_scans F (33 :: ttext) h sfx -> (2 <= F)%nat -> is_blank_or_breakz (hd 0 rest) = true ->
  let n := N.of_nat (length (33 :: ttext)) in
  exists lk', (lk <= lk')%nat /\
    fetch_next_token str_ops F (top (32 :: 33 :: ttext ++ rest) lk m w [] false tp false)
    = SBase.Ok (tt, top rest lk' (adv n (adv 1 m)) false
                      [(mkspan (adv 1 m) (adv n (adv 1 m)), TTag h sfx)] false tp false).
Proof.
  intros F ttext h sfx rest lk m w tp HS HF HR n.
  assert (HE : tag_end (sc_flow_level (base [] false tp false)) (hd 0 rest) = true).
  { unfold tag_end. rewrite HR. reflexivity. }
  destruct (HS rest (Nat.max (Nat.max (Nat.max lk 1) 1) 4) (adv 1 m) w (base [] false tp false) HE) as [lk' [Hlk E]].
  exists lk'. split; [lia|]. rewrite fetch_tag_reduce by exact HF. exact (fetch_scanned_top _ _ _ _ _ _ _ _ _ _ _ _ _ E).
Qed.

(* ` x` and the end of input *)
Lemma scan_plain_x : forall F lk m toks tp, (2 <= F)%nat ->
  scan_plain_scalar str_ops F (top [120] lk m false toks false tp false)
  = SBase.Ok ((mkspan m (adv 1 m), TScalar Plain [120]),
              top [] (Nat.max (Nat.max lk 4) 128) (adv 1 m) false toks false tp false).
Proof. intros F lk m toks tp HF. destruct F as [|[|F]]; [lia|lia|]. reflexivity. Qed.

Lemma fetch_plain_x : forall F lk m tp, (2 <= F)%nat ->
  exists lk', (lk <= lk')%nat /\
    fetch_next_token str_ops F (top [32; 120] lk m false [] false tp false)
    = SBase.Ok (tt, top [] lk' (adv 1 (adv 1 m)) false
                      [(mkspan (adv 1 m) (adv 1 (adv 1 m)), TScalar Plain [120])] false tp false).
Proof.
  intros F lk m tp HF. eexists. split; cycle 1.
  - erewrite (fetch_top_dispatch F _ _ _ _ _ _ _ _ _ _ _ _ _ Dispatch.DPlain);
      [|apply skip_to_next_token_space; [lia|discriminate..]|reflexivity|apply col_adv_pos; discriminate|reflexivity].
    exact (fetch_scanned_top _ _ _ _ _ _ _ _ _ _ _ _ _ (scan_plain_x F _ _ _ _ HF)).
  - lia.
Qed.

(* the end of input *)
Lemma fetch_stream_end_top : forall F lk m tp, (1 <= F)%nat -> (m_col m =? 0) = false ->
  let m' := {| m_index := m_index m; m_line := m_line m + 1; m_col := 0 |} in
  exists lk', (lk <= lk')%nat /\
    fetch_next_token str_ops F (top [] lk m false [] false tp false)
    = SBase.Ok (tt, top [] lk' m' false [(span_empty m', TStreamEnd)] false tp false).
Proof.
  intros F lk m tp HF Hc m'. exists (Nat.max (Nat.max (Nat.max lk 1) 1) 4). split; [lia|].
  erewrite fetch_top_eof; [|apply skip_to_next_token_eof; lia].
  unfold fetch_stream_end. unfold modify at 1. erewrite bind_Ok; [|reflexivity]. fld. rewrite Hc. reflexivity.
Qed.

(* 3. The token stream of the document line `--- <tag> x` (end of input) *)
(* the tokens of the document line, starting at the mark m (column 0) *)
Section DocMarks.
Variables (m : marker) (ttext : list N).
Definition mk_tag : marker := adv 1 (adv 3 m).
Definition mk_tag_end : marker := adv (N.of_nat (length ttext)) mk_tag.
Definition mk_scalar : marker := adv 1 mk_tag_end.
Definition mk_scalar_end : marker := adv 1 mk_scalar.
Definition mk_end : marker := {| m_index := m_index mk_scalar_end; m_line := m_line mk_scalar_end + 1; m_col := 0 |}.
Definition doc_tokens (h sfx : list N) : list token :=
  [ (spn m (adv 3 m), TDocumentStart);
    (mkspan mk_tag mk_tag_end, TTag h sfx);
    (mkspan mk_scalar mk_scalar_end, TScalar Plain [120]);
    (span_empty mk_end, TStreamEnd) ].
End DocMarks.

Lemma scan_all_doc_line : forall F fuel ttext h sfx lk i ln w ska tp acc,
  tag_scans F (33 :: ttext) h sfx -> (2 <= F)%nat -> (5 <= fuel)%nat ->
  let m := {| m_index := i; m_line := ln; m_col := 0 |} in
  scan_all str_ops F fuel (top (doc_line (33 :: ttext)) lk m w [] ska tp false) acc
  = (rev acc ++ doc_tokens m (33 :: ttext) h sfx, SEnded).
Proof.
  intros F fuel ttext h sfx lk i ln w ska tp acc HS HF Hfuel m. unfold doc_line. cbn [app].
  destruct fuel as [|[|[|[|[|fuel]]]]]; try lia.
  (* --- *)
  destruct (fetch_document_start F 32 (33 :: ttext ++ [32; 120]) lk i ln w ska tp ltac:(lia) eq_refl) as [lk2 [_ E2]].
  cbv zeta in E2. fold m in E2.
  cbn [scan_all]. rewrite (next_token_top F _ _ _ _ _ _ _ _ _ _ _ _ ltac:(lia) E2 ltac:(discriminate)).
  (* the tag *)
  destruct (fetch_tag_gen F ttext h sfx [32; 120] lk2 (adv 3 m) false (tp + 1) HS HF eq_refl) as [lk3 [_ E3]].
  cbv zeta in E3.
  cbn [scan_all]. rewrite (next_token_top F _ _ _ _ _ _ _ _ _ _ _ _ ltac:(lia) E3 ltac:(discriminate)).
  (* the scalar *)
  destruct (fetch_plain_x F lk3 (mk_tag_end m (33 :: ttext)) (tp + 1 + 1) ltac:(lia)) as [lk4 [_ E4]].
  change (adv (N.of_nat (length (33 :: ttext))) (adv 1 (adv 3 m))) with (mk_tag_end m (33 :: ttext)).
  cbn [scan_all]. rewrite (next_token_top F _ _ _ _ _ _ _ _ _ _ _ _ ltac:(lia) E4 ltac:(discriminate)).
  (* the end *)
  destruct (fetch_stream_end_top F lk4 (mk_scalar_end m (33 :: ttext)) (tp + 1 + 1 + 1) ltac:(lia)
              ltac:(apply col_adv_pos; discriminate)) as [lk5 [_ E5]].
  cbv zeta in E5.
  destruct (next_token_end F _ _ _ _ _ _ _ _ _ _ _ _ ltac:(lia) E5) as [s' [E6 E7]].
  change (adv 1 (adv 1 (mk_tag_end m (33 :: ttext)))) with (mk_scalar_end m (33 :: ttext)).
  cbn [scan_all]. rewrite E6. cbn [scan_all]. rewrite E7.
  cbn [rev]. rewrite <- !app_assoc. reflexivity.
Qed.

(* 4. The parser model on these token streams *)
Lemma parse_all_step : forall fuel p se acc ev p',
  p_state p <> SEnd -> state_machine p = Parser.Ok (ev, p') ->
  parse_all (S fuel) p se acc = parse_all fuel p' se (ev :: acc).
Proof.
  intros fuel p se acc ev p' Hs H. cbn [parse_all]. rewrite H. destruct (p_state p); try reflexivity. contradiction.
Qed.

Lemma parse_all_err : forall fuel p se acc site m,
  p_state p <> SEnd -> state_machine p = Parser.Err (PErr site m) ->
  parse_all (S fuel) p se acc = (rev acc, PParseErr site m).
Proof.
  intros fuel p se acc site m Hs H. cbn [parse_all]. rewrite H. destruct (p_state p); try reflexivity. contradiction.
Qed.

Definition P (keep : bool) (toks : list token) (tk : option token) (sts : list pstate) (st : pstate)
  (tags : list (str * str)) : parser :=
  {| p_toks := toks; p_token := tk; p_states := sts; p_state := st; p_anchors := []; p_anchor_id := 1;
     p_tags := tags; p_keep_tags := keep |}.

(* the tagged scalar: the tag is [expand] of the specification on the table the parser holds *)
Lemma pstep_tagged_scalar : forall keep sp4 sp5 h sfx v r tags T,
  agree tags T -> kind_of h <> HMalformed ->
  state_machine (P keep ((sp4, TTag h sfx) :: (sp5, TScalar Plain v) :: r) None [SDocumentEnd] SDocumentContent tags)
  = match expand T h sfx with
    | Some (pre, suf) =>
        Parser.Ok ((EScalar v Plain 0 (Some {| tg_handle := pre; tg_suffix := suf |}), sp5),
                   P keep r None [] SDocumentEnd tags)
    | None => Parser.Err (PErr 20 (sp_start sp4))
    end.
Proof.
  intros keep sp4 sp5 h sfx v r tags T HA HK.
  unfold state_machine, P. cbn [p_state]. unfold document_content, Parser.peek. cbn [p_token p_toks].
  unfold parse_node, Parser.peek. cbn [p_token p_toks set_tok]. unfold node_props.
  erewrite resolve_tag_expand; [|exact HA|exact HK].
  destruct (expand T h sfx) as [[pre suf]|]; reflexivity.
Qed.

(* what the run reports: the tag of the one node and how it ended *)
Definition tag_outcome (o : option (list N * list N)) (m : marker) : list (option (list N * list N)) * pend :=
  match o with
  | Some r => ([Some r], PDone)
  | None => ([], PParseErr 20 m)
  end.

Lemma node_tags_app : forall l1 l2, node_tags (l1 ++ l2) = node_tags l1 ++ node_tags l2.
Proof.
  induction l1 as [|[e s] l1 IH]; intros l2; [reflexivity|]. cbn [app node_tags].
  destruct (tag_of_event e) as [[tg|]|]; cbn [app]; rewrite IH; reflexivity.
Qed.

Lemma parse_from_content : forall keep fuel sp4 sp5 sp6 h sfx v tags T acc,
  agree tags T -> kind_of h <> HMalformed -> (4 <= fuel)%nat ->
  let r := parse_all fuel (P keep [(sp4, TTag h sfx); (sp5, TScalar Plain v); (sp6, TStreamEnd)] None
                             [SDocumentEnd] SDocumentContent tags) SEnded acc in
  (node_tags (fst r), snd r) =
  (node_tags (rev acc) ++ fst (tag_outcome (expand T h sfx) (sp_start sp4)), snd (tag_outcome (expand T h sfx) (sp_start sp4))).
Proof.
  intros keep fuel sp4 sp5 sp6 h sfx v tags T acc HA HK Hfuel. cbv zeta.
  destruct fuel as [|[|[|[|fuel]]]]; try lia.
  pose proof (pstep_tagged_scalar keep sp4 sp5 h sfx v [(sp6, TStreamEnd)] tags T HA HK) as E3.
  destruct (expand T h sfx) as [[pre suf]|].
  - erewrite parse_all_step; [|discriminate|exact E3].
    erewrite parse_all_step; [|discriminate|exact (JsonProofs.doc_end_step [] 1 tags keep sp6 [])].
    erewrite parse_all_step; [|discriminate|apply JsonProofs.stream_end_step].
    cbn [parse_all JsonProofs.P p_state fst snd rev tag_outcome].
    rewrite <- !app_assoc. cbn [app]. rewrite node_tags_app. reflexivity.
  - erewrite parse_all_err; [|discriminate|exact E3]. cbn [fst snd tag_outcome]. rewrite app_nil_r. reflexivity.
Qed.

(* 5. The spellings of a tag *)
(* the spellings of a tag, each with the (handle, suffix) the scanner reports: the suffix is DECODED *)
Inductive tag_spelling : list N -> list N -> list N -> Prop :=
| ts_verbatim : forall l t, Forall (fun c => is_uri_char c = true) l -> decodes l t ->
    tag_spelling (verbatim_text l) [] t
| ts_named : forall name l t, Forall (fun c => is_alpha c = true) name ->
    l <> [] -> Forall (fun c => is_tag_char c = true) l -> decodes l t ->
    tag_spelling (named_text name l) (named_handle name) t
| ts_local : forall l t, l <> [] -> Forall (fun c => is_tag_char c = true) l -> decodes l t ->
    tag_spelling (local_text l) [33] t
| ts_nonspecific : tag_spelling [33] [] [33].

Lemma tag_spelling_scans : forall ttext h sfx F, tag_spelling ttext h sfx -> (length ttext < F)%nat ->
  exists t', ttext = 33 :: t' /\ tag_scans F (33 :: t') h sfx /\ kind_of h <> HMalformed.
Proof.
  intros ttext h sfx F HS HL. inversion HS as [l t HF HD|name l t HN Hne HF HD|l t Hne HF HD|]; subst.
  - eexists. split; [reflexivity|]. split; [|discriminate].
    apply tag_scans_verbatim; [exact HD|exact HF|].
    unfold verbatim_text in HL. cbn [length] in HL. rewrite app_length in HL. cbn [length] in HL. lia.
  - eexists. split; [reflexivity|].
    unfold named_text, named_handle in HL. cbn [app length] in HL. rewrite !app_length in HL. cbn [length] in HL.
    split; [apply tag_scans_named; [exact HN|exact HD|exact HF|exact Hne|lia]|].
    apply kind_of_named. unfold named_handle.
    change (33 :: name ++ [33]) with ((33 :: name) ++ [33]). rewrite last_app1. cbn [app hd length].
    rewrite app_length. cbn [length].
    rewrite (proj2 (N.leb_le 2 _)) by lia. reflexivity.
  - eexists. split; [reflexivity|]. split; [|discriminate].
    apply tag_scans_local; [exact HD|exact HF|exact Hne|]. unfold local_text in HL. cbn [length] in HL. lia.
  - exists []. split; [reflexivity|]. split; [|discriminate]. apply tag_scans_nonspecific. lia.
Qed.

Lemma doc_line_length : forall ttext, length (doc_line ttext) = (6 + length ttext)%nat.
Proof. intros. unfold doc_line. cbn [app length]. rewrite app_length. cbn [length]. lia. Qed.

(* 6. In the words of the specification (Spec/TagSpec.v section 4) *)
(* the character classes generated from char_traits.rs are the productions of the YAML specification *)
Lemma above_ascii : forall c, 128 <= c ->
  (forall k, k < 128 -> (c <=? k) = false) /\ (forall k, k < 128 -> (c =? k) = false).
Proof. intros c H. split; intros k Hk; [apply N.leb_gt|apply N.eqb_neq]; lia. Qed.

(* each time: the ASCII characters by evaluation; above them every test of either table fails, since the tables
   compare with ASCII characters only *)
Lemma alpha_is_handle_name_char : forall c, is_alpha c = handle_name_char c.
Proof.
  intros c. destruct (N.ltb_spec c 128) as [H|H].
  - apply Bool.eqb_prop. revert c H. apply (below_spec 128). vm_compute. reflexivity.
  - destruct (above_ascii c H) as [L E].
    unfold is_alpha, handle_name_char, ns_word_char, ns_dec_digit, ns_ascii_letter, between.
    rewrite !L, !E by reflexivity. rewrite !andb_false_r. reflexivity.
Qed.
Lemma uri_char_is_ns_uri_char : forall c, is_uri_char c = ns_uri_char c.
Proof.
  intros c. destruct (N.ltb_spec c 128) as [H|H].
  - apply Bool.eqb_prop. revert c H. apply (below_spec 128). vm_compute. reflexivity.
  - destruct (above_ascii c H) as [L E].
    unfold is_uri_char, is_word_char, is_alpha, ns_uri_char, ns_word_char, ns_dec_digit, ns_ascii_letter, between,
      uri_punctuation, percent. cbn [existsb member]. rewrite !L, !E by reflexivity. rewrite !andb_false_r. reflexivity.
Qed.
Lemma tag_char_is_ns_tag_char : forall c, is_tag_char c = ns_tag_char c.
Proof.
  intros c. destruct (N.ltb_spec c 128) as [H|H].
  - apply Bool.eqb_prop. revert c H. apply (below_spec 128). vm_compute. reflexivity.
  - destruct (above_ascii c H) as [L E].
    unfold is_tag_char, is_flow, ns_tag_char, c_flow_indicator, bang. rewrite uri_char_is_ns_uri_char.
    cbn [member]. rewrite !E by reflexivity. reflexivity.
Qed.
Lemma blank_is_s_white : forall c, is_blank c = s_white c.
Proof. reflexivity. Qed.

Lemma char_classes : forall c,
  is_tag_char c = ns_tag_char c /\ is_uri_char c = ns_uri_char c /\ is_alpha c = handle_name_char c
  /\ is_blank c = s_white c.
Proof.
  intros c. exact (conj (tag_char_is_ns_tag_char c) (conj (uri_char_is_ns_uri_char c)
                    (conj (alpha_is_handle_name_char c) (blank_is_s_white c)))).
Qed.

Lemma all_Forall : forall p q l, (forall c, q c = p c) -> all p l = true -> Forall (fun c => q c = true) l.
Proof.
  intros p q l H. induction l as [|c l IH]; intros HA; [constructor|].
  cbn [all] in HA. apply andb_true_iff in HA. destruct HA as [H1 H2].
  constructor; [rewrite H; exact H1|apply IH; exact H2].
Qed.
Lemma nonempty_ne : forall l, nonempty l = true -> l <> [].
Proof. intros [|c l] H; [discriminate|discriminate]. Qed.

Lemma tag_text_spelling : forall ttext h sfx, tag_text ttext h sfx -> tag_spelling ttext h sfx.
Proof.
  intros ttext h sfx H. inversion H as [uri t HU HD|name suffix t HN Hne HT HD|suffix t Hne HT HD|]; subst.
  - apply ts_verbatim; [apply (all_Forall _ _ _ uri_char_is_ns_uri_char HU)|apply percent_decode_decodes; exact HD].
  - apply ts_named; [apply (all_Forall _ _ _ alpha_is_handle_name_char HN)|apply nonempty_ne; exact Hne
                    |apply (all_Forall _ _ _ tag_char_is_ns_tag_char HT)|apply percent_decode_decodes; exact HD].
  - apply ts_local; [apply nonempty_ne; exact Hne|apply (all_Forall _ _ _ tag_char_is_ns_tag_char HT)
                    |apply percent_decode_decodes; exact HD].
  - apply ts_nonspecific.
Qed.

(* a %TAG line in the character classes of the model *)
Record dir_line_ok (bl1 dh bl2 ptext p : list N) : Prop := {
  dlo_bl1 : bl1 <> [] /\ Forall (fun c => is_blank c = true) bl1;
  dlo_handle : dir_handle dh;
  dlo_bl2 : bl2 <> [] /\ Forall (fun c => is_blank c = true) bl2;
  dlo_prefix : prefix_text ptext /\ decodes ptext p
}.

Lemma tag_directive_text_ok : forall line dh p, tag_directive_text line dh p ->
  exists bl1 bl2 ptext, line = dir_line bl1 dh bl2 ptext /\ dir_line_ok bl1 dh bl2 ptext p.
Proof.
  intros line dh p H. inversion H as [ws1 handle ws2 prefix p0 Hn1 HW1 Hn2 HW2 HH HP0 HPU HD]; subst.
  exists ws1, ws2, prefix. split; [reflexivity|]. constructor.
  - split; [apply nonempty_ne; exact Hn1|apply (all_Forall _ _ _ blank_is_s_white HW1)].
  - destruct HH as [->|[name [-> HN]]]; [constructor|].
    apply dh_named. apply (all_Forall _ _ _ alpha_is_handle_name_char HN).
  - split; [apply nonempty_ne; exact Hn2|apply (all_Forall _ _ _ blank_is_s_white HW2)].
  - split; [|apply percent_decode_decodes; exact HD].
    destruct prefix as [|c0 pr]; [discriminate|]. split; [discriminate|]. split.
    + cbn [hd]. apply orb_true_iff in HP0. destruct HP0 as [HP0|HP0].
      * left. apply N.eqb_eq in HP0. exact HP0.
      * right. rewrite tag_char_is_ns_tag_char. exact HP0.
    + apply (all_Forall _ _ _ uri_char_is_ns_uri_char HPU).
Qed.

(* where the tag of the document line begins, after a directive line [line] (possibly empty) *)
Definition tag_mark (line : list N) : marker :=
  {| m_index := N.of_nat (length line) + 4; m_line := match line with [] => 1 | _ => 2 end; m_col := 4 |}.

Lemma dir_line_length : forall bl1 dh bl2 ptext,
  length (dir_line bl1 dh bl2 ptext) = (4 + length bl1 + length dh + length bl2 + length ptext + 1)%nat.
Proof. intros. unfold dir_line, s_tag_line. repeat (rewrite app_length || cbn [length]). lia. Qed.

(* the scanner half alone, in the words of the specification *)
Theorem scan_tag_text : forall F ttext h sfx rest lk m w s,
  tag_text ttext h sfx -> (length ttext < F)%nat -> tag_end (sc_flow_level s) (hd 0 rest) = true ->
  exists lk', (lk <= lk')%nat /\
    scan_tag str_ops F (st (ttext ++ rest) lk m w s)
    = SBase.Ok ((mkspan m (adv (N.of_nat (length ttext)) m), TTag h sfx),
                st rest lk' (adv (N.of_nat (length ttext)) m) false s).
Proof.
  intros F ttext h sfx rest lk m w s HT HL HE.
  destruct (tag_spelling_scans ttext h sfx F (tag_text_spelling _ _ _ HT) HL) as [t' [-> [HS _]]].
  exact (HS rest lk m w s HE).
Qed.

Theorem scan_directive_text : forall F line dh p rest lk m w s,
  tag_directive_text line dh p -> (length line < F)%nat ->
  exists lk', (lk <= lk')%nat /\
    scan_directive str_ops F (st (line ++ rest) lk m w s)
    = SBase.Ok ((mkspan m (adv (N.of_nat (length line - 1)) m), TTagDirective dh p),
                st rest lk' (nlm (adv (N.of_nat (length line - 1)) m)) true s).
Proof.
  intros F line dh p rest lk m w s HD HL.
  destruct (tag_directive_text_ok _ _ _ HD) as [bl1 [bl2 [ptext [-> [[Hn1 HB1] HH [Hn2 HB2] [HP HDp]]]]]].
  rewrite dir_line_length in *.
  destruct (scan_directive_tag_text F bl1 dh bl2 ptext p rest lk m w s Hn1 HB1 HH Hn2 HB2 HDp HP ltac:(lia)) as [lk' [Hlk E]].
  cbv zeta in E. exists lk'. split; [exact Hlk|].
  replace (dir_line bl1 dh bl2 ptext ++ rest) with (s_tag_line ++ bl1 ++ dh ++ bl2 ++ ptext ++ 10 :: rest)
    by (unfold dir_line; rewrite <- !app_assoc; reflexivity).
  refine (eq_trans E _).
  replace (4 + length bl1 + length dh + length bl2 + length ptext + 1 - 1)%nat
    with (4 + length bl1 + length dh + length bl2 + length ptext)%nat by lia. reflexivity.
Qed.

