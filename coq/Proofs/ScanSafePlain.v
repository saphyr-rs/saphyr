(* Joint proof "the scanner never panics on a buffered input of any capacity >= 8": the PLAIN SCALAR family
   (scan_plain_scalar, its chunked inner loop plain_chunk and its blank/break loop plain_blanks).  The walks
   follow the buffered length; the contract's [keeps] half is [ScanFrame.Fr_scan_plain_scalar]. *)
From Coq Require Import List NArith ZArith Bool Arith Lia.
Import ListNotations.
Require Import Parser SBase SPrim SDir SScalar SFetch SBuf ScanLoops ScanWP.
Local Open Scope nat_scope.
#[local] Arguments Nat.ltb : simpl never.
#[local] Arguments Nat.leb : simpl never.
#[local] Arguments Nat.eqb : simpl never.
#[local] Arguments Nat.sub : simpl never.

Section Plain.
Variable cap : nat.
Hypothesis cap_ge : 8 <= cap.
Hypothesis H_ws : spec_skip_ws_to_eol cap.
Notation bops := (bops cap).
Notation st := (sc bufin).
Notation M := (@M bufin).

Lemma wp_if_any {A} (b : bool) (m1 m2 : M A) (Q : A -> st -> Prop) s :
  wp m1 Q s -> wp m2 Q s -> wp (if b then m1 else m2) Q s.
Proof. destruct b; auto. Qed.

(* ---------------- plain_chunk: the chunked inner loop ----------------
   INVARIANT: at counter [j] the buffer still holds at least [cap - j] characters.  The call site (and the refill
   branch) establish it with [look cap] and [j = 0]; a round is entered only when [j < cap - 1], i.e. with at least
   2 buffered characters (enough for next_is / next_can_be_plain_scalar / peek), and consumes exactly one.
   On exit at least 2 characters are still buffered. *)
Lemma safe_plain_chunk : forall fuel j acc s,
  cap - j <= bl s ->
  wp (plain_chunk bops fuel j acc) (fun _ s' => 2 <= bl s') s.
Proof.
  induction fuel as [|fuel IH]; intros j acc s Hj; cbn [plain_chunk]; [exact I|].
  change (bufmaxlen bops) with cap.
  destruct (Nat.leb (cap - 1) j) eqn:E.
  - apply wp_bind. apply (wp_look cap cap_ge); [lia|]. intros s1 _ B1 _ _. apply IH; lia.
  - apply Nat.leb_gt in E.
    apply wp_bind. apply (wp_next_is cap cap_ge); [lia|]. intros b.
    apply wp_bind. apply wp_get.
    apply wp_bind. destruct b.
    + apply wp_ret. cbn [orb]. apply wp_ret. lia.
    + apply (wp_next_can_be_plain_scalar cap cap_ge); [lia|]. intros cb. cbn [orb].
      destruct cb; cbn [negb].
      * apply wp_bind. apply (wp_peek cap cap_ge); [lia|]. intros c.
        apply wp_bind. apply (wp_skip_non_blank cap cap_ge). intros s1 _ B1. apply IH; lia.
      * apply wp_ret. lia.
Qed.

(* plain_blanks: blanks and breaks between the words *)
Lemma safe_plain_blanks F (Q : bool * N * list chr -> st -> Prop) : (forall r s', Q r s') ->
  forall fuel indent start lb tb ws s, 2 <= bl s -> wp (plain_blanks bops F fuel indent start lb tb ws) Q s.
Proof.
  intros HQ. induction fuel as [|fuel IH]; intros indent start lb tb ws s Hs; cbn [plain_blanks]; [exact I|].
  apply wp_bind. apply (wp_peek_val cap cap_ge); [lia|].
  assert (Hblank : forall ws', wp (skip_blank bops ;;; look bops 2 ;;; plain_blanks bops F fuel indent start lb tb ws') Q s).
  { intros ws'. apply wp_bind. apply (wp_skip_blank cap cap_ge). intros s1 _ _.
    apply wp_bind. apply (wp_look cap cap_ge); [lia|]. intros s2 _ B2 _ _. apply IH; lia. }
  destruct (is_blank (bnth s 0)) eqn:Eb.
  - apply wp_bind. apply wp_get.
    destruct (negb (sc_lws s)); [apply Hblank|].
    destruct ((Z.of_N (m_col (sc_mark s)) <? indent)%Z && (bnth s 0 =? 9)%N); [|apply Hblank].
    apply wp_bind. eapply wp_mono; [apply H_ws|]. intros a s1 [_ B1].
    apply wp_bind. apply (wp_next_is cap cap_ge); [lia|]. intros b.
    destruct b; [|apply wp_fail].
    apply wp_bind. apply (wp_look cap cap_ge); [lia|]. intros s2 _ B2 _ _. apply IH; lia.
  - destruct (is_break (bnth s 0)) eqn:Ek; [|apply wp_ret, HQ].
    apply wp_bind. apply wp_get.
    destruct (sc_lws s).
    + apply wp_bind. apply (wp_skip_break cap cap_ge); [lia|exact Ek|]. intros s1 _ _.
      apply wp_bind. apply (wp_look cap cap_ge); [lia|]. intros s2 _ B2 _ _. apply IH; lia.
    + apply wp_bind. apply (wp_skip_break cap cap_ge); [lia|exact Ek|]. intros s1 _ _.
      apply wp_bind. apply wp_modify.
      apply wp_bind. apply (wp_look cap cap_ge); [lia|]. intros s2 _ B2 _ _. apply IH; lia.
Qed.

Lemma safe_plain_go F indent start (Q : list chr * marker -> st -> Prop) : (forall r s', Q r s') ->
  forall f acc lb tb ws endm s, wp (plain_go bops F indent start f acc lb tb ws endm) Q s.
Proof.
  intros HQ. induction f as [|f IH]; intros acc lb tb ws endm s; cbn [plain_go]; [exact I|].
  apply wp_bind. apply (wp_look cap cap_ge); [lia|]. intros s1 _ B1 _ _.
  apply wp_bind. apply wp_get.
  apply wp_bind.
  match goal with |- wp _ ?P _ => assert (HP : forall di, P di s1) end.
  2:{ apply wp_if_any; [apply (wp_next_is_document_indicator cap cap_ge); [lia|exact HP]|apply wp_ret; exact (HP false)]. }
  intros di. cbv beta.
  apply wp_bind. apply (wp_peek cap cap_ge); [lia|]. intros c.
  destruct (di || (c =? 35)%N); [apply wp_ret, HQ|].
  apply wp_bind. apply (wp_peekn cap cap_ge); [lia|]. intros nc.
  cbv zeta.
  destruct ((match acc with [] => true | _ => false end) && (0 <? sc_flow_level s1)%N && (c =? 45)%N && is_flow nc); [apply wp_fail|].
  apply wp_bind.
  match goal with |- wp _ ?P _ => assert (HP : forall cb, P cb s1) end.
  2:{ apply wp_if_any; [apply wp_ret; exact (HP false)|apply (wp_next_can_be_plain_scalar cap cap_ge); [lia|exact HP]]. }
  intros cb. cbv beta.
  apply wp_bind.
  (* what happens after the word has been consumed: one buffered character is enough *)
  match goal with |- wp _ ?P _ => assert (HP : forall r s2, (1 <= bl s2)%nat -> P r s2) end.
  { intros [[[[acc' lb'] tb'] ws'] endm'] s2 B2. cbv beta iota.
    apply wp_bind. apply (wp_peek cap cap_ge); [lia|]. intros c2.
    destruct (negb (is_blank c2 || is_break c2)); [apply wp_ret, HQ|].
    apply wp_bind. apply (wp_look cap cap_ge); [lia|]. intros s3 _ B3 _ _.
    apply wp_bind. apply safe_plain_blanks; [|lia]. intros [[lb2 tb2] ws2] s4. cbv beta iota.
    apply wp_bind. apply wp_get.
    destruct ((sc_flow_level s4 =? 0)%N && (Z.of_N (m_col (sc_mark s4)) <? indent)%Z); [apply wp_ret, HQ|apply IH]. }
  destruct cb; [|apply wp_ret; apply (HP (acc, lb, tb, ws, endm) s1); lia].
  destruct (if sc_lws s1 then _ else _) as [[[a1 l1] t1] w1]. cbv beta iota.
  apply wp_bind. apply wp_modify.
  apply wp_bind. apply (wp_skip_non_blank cap cap_ge). intros s2 _ _.
  change (bufmaxlen bops) with cap.
  apply wp_bind. apply (wp_look cap cap_ge); [lia|]. intros s3 _ B3 _ _.
  apply wp_bind. eapply wp_mono; [apply safe_plain_chunk; lia|]. intros acc2 s4 B4. cbv beta in B4.
  apply wp_bind. apply wp_mark. apply wp_ret. apply (HP (acc2, l1, t1, w1, sc_mark s4) s4). lia.
Qed.

(* the contract *)
Theorem safe_scan_plain_scalar : spec_scan_plain_scalar cap.
Proof.
  intros F s. apply wp_post_keeps; [apply ScanFrame.Fr_scan_plain_scalar|]. rewrite scan_plain_scalar_eq.
  apply wp_bind. unfold unroll_non_block_indents. apply wp_modify.
  apply wp_bind. apply wp_get. cbv zeta.
  dif; [apply wp_fail|].
  apply wp_bind. apply safe_plain_go. intros r s2. cbv beta.
  apply wp_bind. apply wp_get.
  apply wp_bind. apply wp_if_any.
  - unfold allow_simple_key. apply wp_modify.
    destruct (fst r); [apply wp_fail|]. apply wp_ret. lia.
  - apply wp_ret. destruct (fst r); [apply wp_fail|]. apply wp_ret. lia.
Qed.
End Plain.

Print Assumptions safe_scan_plain_scalar.
