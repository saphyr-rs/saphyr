(* C03, parser half, whole streams: any number of documents, %YAML / %TAG directives, '---' / '...' markers.
   The pull parser run on stream_toks ds emits exactly stream_events keep ds.  Also: the fuel of parse_tokens suffices. *)
From Coq Require Import List NArith Bool Lia.
Import ListNotations.
Require Import Parser TokenGrammar TokenGrammarProofs StrEqb.

Arguments N.add : simpl never.
Arguments N.ltb : simpl never.

(* handle tables *)
(* two tables with the same lookups *)
Definition teq (t1 t2 : list (str * str)) : Prop := forall k, assoc k t1 = assoc k t2.

Lemma resolve_pure_ext t1 t2 h s : teq t1 t2 -> resolve_pure t1 h s = resolve_pure t2 h s.
Proof. intros H. unfold resolve_pure. rewrite !H. reflexivity. Qed.
Lemma tag_ev_ext t1 t2 tg : teq t1 t2 -> tag_ev t1 tg = tag_ev t2 tg.
Proof. intros H. destruct tg as [[h s]|]; [|reflexivity]. cbn. apply resolve_pure_ext, H. Qed.
Lemma tag_ok_ext t1 t2 tg : teq t1 t2 -> tag_ok t1 tg = tag_ok t2 tg.
Proof. intros H. destruct tg as [[h s]|]; [|reflexivity]. cbn. rewrite (resolve_pure_ext _ _ h s H). reflexivity. Qed.
Lemma number_ext t1 t2 : teq t1 t2 -> forall l e, number t1 e l = number t2 e l.
Proof.
  intros H. induction l as [|x l IH]; intros e; cbn [number]; [reflexivity|]. rewrite IH. f_equal.
  destruct x; cbn [number1]; rewrite ?(tag_ev_ext _ _ _ H); reflexivity.
Qed.
Lemma bound_ext t1 t2 : teq t1 t2 -> forall l e, bound t1 e l = bound t2 e l.
Proof.
  intros H. induction l as [|x l IH]; intros e; cbn [bound]; [reflexivity|]. rewrite IH. f_equal.
  destruct x; cbn [bound1]; rewrite ?(tag_ok_ext _ _ _ H); reflexivity.
Qed.

Lemma dirs_ok_fresh dirs : forall seen ver h, dirs_ok seen ver dirs = true ->
  existsb (str_eqb h) seen = true -> assoc h (dir_tags dirs) = None.
Proof.
  induction dirs as [|[a b|h0 p0] r IH]; intros seen ver h Hok Hs; cbn [dirs_ok] in *; rewrite ?dir_tags_ver, ?dir_tags_tag.
  - reflexivity.
  - apply andb_prop in Hok as [_ Hok]. eapply IH; eauto.
  - apply andb_prop in Hok as [Hf Hok]. cbn [assoc]. destruct (str_eqb h h0) eqn:E.
    + apply pstr_eqb_iff in E. subst h0. rewrite Hs in Hf. discriminate.
    + eapply IH; [exact Hok|]. cbn [existsb]. rewrite Hs. apply orb_true_r.
Qed.

Lemma extend_tags_teq dirs : forall seen ver t t', dirs_ok seen ver dirs = true -> teq t t' ->
  teq (extend_tags t (dir_tags dirs)) (dir_tags dirs ++ t').
Proof.
  induction dirs as [|[a b|h0 p0] r IH]; intros seen ver t t' Hok Ht; cbn [dirs_ok] in *; rewrite ?dir_tags_ver, ?dir_tags_tag; cbn [app extend_tags].
  - exact Ht.
  - apply andb_prop in Hok as [_ Hok]. eapply IH; eauto.
  - apply andb_prop in Hok as [Hf Hok].
    assert (Ht1 : teq (assoc_set h0 p0 t) ((h0, p0) :: t')).
    { intros k. rewrite assoc_set_spec. cbn [assoc]. rewrite Ht. reflexivity. }
    intros k. rewrite (IH _ _ _ _ Hok Ht1 k). rewrite assoc_app. cbn [assoc]. rewrite assoc_app.
    destruct (str_eqb k h0) eqn:E; [|reflexivity].
    apply pstr_eqb_iff in E. subst h0.
    rewrite (dirs_ok_fresh r (k :: seen) ver k Hok); [reflexivity|]. cbn [existsb]. rewrite pstr_eqb_refl. reflexivity.
Qed.

(* the documents of a stream *)
Lemma ends_of_repeat (te : list token) m : map snd te = repeat TDocumentEnd m -> all_ends te.
Proof.
  revert te. induction m as [|m IH]; intros te H; cbn [repeat] in H.
  - apply map_eq_nil in H as ->. constructor.
  - apply map_snd_cons in H as (sp & t2 & -> & H). constructor; [reflexivity|apply IH, H].
Qed.

Lemma docs_first ds (tdocs : list token) spE :
  docs_wf false ds = true -> map snd tdocs = flat_map doc_toks ds ->
  exists x rest, tdocs ++ [(spE, TStreamEnd)] = x :: rest /\ (snd x = TDocumentStart \/ snd x = TStreamEnd).
Proof.
  destruct ds as [|d r]; cbn [docs_wf flat_map]; intros Hw Hm.
  - apply map_eq_nil in Hm as ->. cbn. eauto.
  - apply andb_prop in Hw as [Hw _]. apply andb_prop in Hw as [Hw _]. apply andb_prop in Hw as [Hw Hs].
    apply andb_prop in Hw as [_ Hd]. cbn [andb] in Hd. rewrite orb_false_r in Hd, Hs.
    unfold doc_toks in Hm. destruct (ld_dirs d); [|discriminate]. rewrite Hs in Hm. cbn in Hm.
    apply map_snd_cons in Hm as (sp & t2 & -> & _). cbn. eauto.
Qed.

Lemma docs_run ds : forall closed p (le tdocs : list token) spE n tg kp prev,
  docs_wf closed ds = true ->
  view p = mkv (le ++ tdocs ++ [(spE, TStreamEnd)]) (between closed) [] [] n tg kp ->
  all_ends le ->
  map snd tdocs = flat_map doc_toks ds ->
  teq tg (if kp then prev else []) ->
  (0 < n)%N ->
  docs_bound kp prev n ds = true ->
  exists p', steps p (docs_events kp prev n ds ++ [EStreamEnd]) p' /\ p_state p' = SEnd.
Proof.
  induction ds as [|d r IH]; intros closed p le tdocs spE n tg kp prev Hw Hv Hle Hm Htg Hn Hb.
  - cbn in Hm. apply map_eq_nil in Hm as ->. exact (stream_end closed le spE p n tg kp Hv Hle).
  - cbn [docs_wf] in Hw. apply andb_prop in Hw as [Hw Hwr]. apply andb_prop in Hw as [Hw Hroot].
    apply andb_prop in Hw as [Hw Hsc]. apply andb_prop in Hw as [Hok Hd].
    cbn [docs_bound] in Hb. apply andb_prop in Hb as [Hbd Hbr].
    cbn [flat_map] in Hm. apply map_eq_app in Hm as (tdoc & tdocs' & -> & Hmd & Hm').
    unfold doc_toks in Hmd.
    apply map_eq_app in Hmd as (td & t2 & -> & Hmdirs & Hmd).
    apply map_eq_app in Hmd as (tds & t3 & -> & Hmds & Hmd).
    apply map_eq_app in Hmd as (tt & te & -> & Hmt & Hme).
    set (T := extend_tags tg (dir_tags (ld_dirs d))).
    set (tgs := doc_tags kp prev d) in *.
    assert (HT : teq T tgs) by (apply (extend_tags_teq (ld_dirs d) [] false tg _ Hok Htg)).
    (* the token behind the root node, and what is left for the next document *)
    assert (Hx : exists x rest,
               te ++ tdocs' ++ [(spE, TStreamEnd)] = x :: rest /\ doc_follow (snd x) = true /\
               exists le', all_ends le' /\
                 (if is_end (snd x) then rest else x :: rest) = le' ++ tdocs' ++ [(spE, TStreamEnd)] /\
                 is_end (snd x) = match ld_ends d with O => false | S _ => true end).
    { destruct (ld_ends d) as [|m]; cbn [repeat] in Hme.
      - apply map_eq_nil in Hme as ->. cbn [app].
        destruct (docs_first r tdocs' spE Hwr Hm') as (x & rest & Ex & Hx).
        exists x, rest. split; [exact Ex|]. destruct x as [sx tx]. cbn [snd] in *.
        destruct Hx as [-> | ->]; (split; [reflexivity|]); exists []; (split; [constructor|]); cbn; auto.
      - apply map_snd_cons in Hme as (sp & te' & -> & Hme). cbn [app].
        do 2 eexists. split; [reflexivity|]. split; [reflexivity|]. exists te'. split; [eapply ends_of_repeat; eauto|].
        cbn. auto. }
    destruct Hx as (x & rest & Ex & Hfx & le' & Hle' & Erest & Eend).
    rewrite <- !app_assoc in Hv. unfold token in *. rewrite Ex in Hv.
    assert (Hbd' : bound T (doc_env n) (pre_events (ld_root d)) = true) by (rewrite (bound_ext _ _ HT); exact Hbd).
    destruct (doc_run closed (ld_dirs d) (ld_start d) (ld_root d) le td tds tt x rest p n tg kp
                Hv Hle Hmdirs Hmds Hmt Hfx Hok Hd Hsc Hroot Hbd' Hn) as (p3 & R3 & V3).
    fold T in R3, V3. unfold token in *. rewrite Erest, Eend in V3.
    destruct (IH _ p3 le' tdocs' spE _ (if kp then T else []) kp tgs Hwr V3 Hle' Hm'
                 ltac:(destruct kp; [exact HT | intros k; reflexivity]) (env_after_pos (pre_events (ld_root d)) (doc_env n) Hn) Hbr) as (p4 & R4 & E4).
    exists p4. split; [|exact E4].
    pose proof (steps_app _ _ _ _ _ R3 R4) as R. cbn [app] in R. rewrite <- app_assoc in R.
    cbn [docs_events app]. fold tgs. rewrite <- (number_ext _ _ HT), <- app_assoc. exact R.
Qed.

(* the whole stream *)
Lemma stream_steps ds toks keep :
  docs_wf true ds = true -> docs_bound keep [] 1%N ds = true ->
  map snd toks = stream_toks ds ->
  exists p', steps (init_p toks keep) (stream_events keep ds) p' /\ p_state p' = SEnd.
Proof.
  intros Hw Hb Hm. unfold stream_toks in Hm.
  apply map_snd_cons in Hm as (sp0 & t1 & -> & Hm).
  apply map_eq_app in Hm as (tdocs & t2 & -> & Hmd & Hm).
  apply map_snd_cons in Hm as (spE & t3 & -> & Hm). apply map_eq_nil in Hm as ->.
  destruct (docs_run ds true (mkp (tdocs ++ [(spE, TStreamEnd)]) None SImplicitDocumentStart [] [] 1%N [] keep)
              [] tdocs spE 1%N [] keep [] Hw eq_refl ltac:(constructor) Hmd
              ltac:(destruct keep; intros k; reflexivity) ltac:(reflexivity) Hb) as (p' & R & E).
  exists p'. split; [|exact E]. unfold stream_events.
  econstructor; [reflexivity|]. exact R.
Qed.

Require Import Pipe Drivers.

Theorem parse_stream ds toks keep se fuel :
  docs_wf true ds = true -> docs_bound keep [] 1%N ds = true ->
  map snd toks = stream_toks ds ->
  (length (stream_events keep ds) < fuel)%nat ->
  map fst (fst (parse_all fuel (init_p toks keep) se [])) = stream_events keep ds /\
  snd (parse_all fuel (init_p toks keep) se []) = PDone.
Proof.
  intros Hw Hb Hm Hf. destruct (stream_steps ds toks keep Hw Hb Hm) as (p3 & R & E3).
  exact (steps_end_parse_all _ _ _ se fuel R E3 Hf).
Qed.

(* the fuel of parse_tokens (4 * tokens + 40) always suffices *)
Lemma number_length tg l : forall e, length (number tg e l) = length l.
Proof. induction l as [|x l IH]; intros e; cbn [number length]; [reflexivity|]. rewrite IH. reflexivity. Qed.

Lemma flat_map_le {A} (f : A -> list pev) (g : A -> list tok) l :
  Forall (fun x => (length (f x) <= 4 * length (g x))%nat) l ->
  (length (flat_map f l) <= 4 * length (flat_map g l))%nat.
Proof. induction 1 as [|x l Hx _ IH]; cbn [flat_map length]; [lia|]. rewrite !app_length. lia. Qed.

Lemma fsep_length (l : list (list tok)) : (length (concat l) <= length (fsep l))%nat.
Proof.
  destruct l as [|x r]; cbn [fsep concat length]; [lia|]. rewrite !app_length.
  enough (length (concat r) <= length (flat_map (fun y => TFlowEntry :: y) r))%nat by lia.
  induction r as [|y r IH]; cbn [concat flat_map length]; [lia|]. cbn [app length]. rewrite !app_length. lia.
Qed.
Lemma concat_map_flat {A B} (f : A -> list B) l : concat (map f l) = flat_map f l.
Proof. induction l as [|x l IH]; cbn; [reflexivity|]. rewrite IH. reflexivity. Qed.

Lemma props_toks_some pr : has_some_props pr = true -> (1 <= length (props_toks pr))%nat.
Proof. destruct pr as [[a|] [[h s]|] [|]]; cbn; intros; try discriminate; lia. Qed.

(* an indentless sequence of left-out entries is the densest layout: 3 events for one BlockEntry token; it only occurs as key or
   value of a block mapping, which pays for it *)
Definition Weight (t : ltree) : Prop :=
  forall b i, wf b i t = true -> (length (pre_events t) + (if i then 1 else 2) <= 4 * length (tokens_of t))%nat.

Lemma none_or_weight t b i : Weight t -> is_none t || wf b i t = true ->
  (length (pre_events t) <= 1 + 4 * length (tokens_of t))%nat /\
  (is_none t = false -> length (pre_events t) + (if i then 1 else 2) <= 4 * length (tokens_of t))%nat.
Proof.
  intros HW H. destruct (is_none t) eqn:EN; cbn [orb] in H.
  - destruct t; try discriminate. cbn. split; [lia|discriminate].
  - specialize (HW b i H). split; [destruct i; lia|intros _; exact HW].
Qed.

Lemma weight_all : forall t, Weight t.
Proof.
  apply ltree_ind2; unfold Weight.
  - intros pr st v b i _. cbn [pre_events tokens_of length]. rewrite app_length. cbn. destruct i; lia.
  - intros n b i _. cbn. destruct i; lia.
  - intros b i H. discriminate.
  - intros pr b i H. cbn [wf] in H. apply props_toks_some in H. cbn [pre_events tokens_of length]. destruct i; lia.
  - (* block sequence *)
    intros pr items HF b i H. cbn [wf] in H. apply andb_prop in H as [_ H].
    cbn [pre_events tokens_of length]. rewrite !app_length. cbn [length]. rewrite !app_length. cbn [length].
    enough (length (flat_map pre_events items) <= 4 * length (flat_map (fun x => TBlockEntry :: tokens_of x) items))%nat by (destruct i; lia).
    apply flat_map_le. rewrite Forall_forall in *. intros x Hx. rewrite forallb_forall in H.
    destruct (none_or_weight x true false (HF x Hx) (H x Hx)) as [H1 _]. cbn [length]. lia.
  - (* indentless sequence *)
    intros pr items HF b i H. cbn [wf] in H. apply andb_prop in H as [H Hw]. apply andb_prop in H as [H Hne].
    apply andb_prop in H as [_ ->].
    cbn [pre_events tokens_of length]. rewrite !app_length. cbn [length].
    destruct items as [|x0 items]; [discriminate|]. cbn [forallb] in Hw. apply andb_prop in Hw as [Hw0 Hw].
    inversion HF as [|? ? HF0 HF']; subst.
    assert (length (flat_map pre_events items) <= 4 * length (flat_map (fun x => TBlockEntry :: tokens_of x) items))%nat.
    { apply flat_map_le. rewrite Forall_forall in *. intros x Hx. rewrite forallb_forall in Hw.
      destruct (none_or_weight x true false (HF' x Hx) (Hw x Hx)) as [H1 _]. cbn [length]. lia. }
    destruct (none_or_weight x0 true false HF0 Hw0) as [H1 H2].
    cbn [flat_map length app]. rewrite ?app_length. cbn [length]. rewrite ?app_length.
    destruct (is_none x0) eqn:EN.
    + destruct x0; try discriminate. cbn [pre_events tokens_of length] in *. lia.
    + specialize (H2 eq_refl). lia.
  - (* block mapping *)
    intros pr ents HF b i H. cbn [wf] in H. apply andb_prop in H as [H _]. apply andb_prop in H as [_ H].
    cbn [pre_events tokens_of length]. rewrite !app_length. cbn [length]. rewrite !app_length. cbn [length].
    enough (length (flat_map (ent_pre pre_events) ents) <= 4 * length (flat_map (ent_toks tokens_of) ents))%nat by (destruct i; lia).
    apply flat_map_le. rewrite Forall_forall in *. intros [[kt kn] [vt vn]] Hx. rewrite forallb_forall in H.
    specialize (H _ Hx). specialize (HF _ Hx). cbn [fst snd] in HF. destruct HF as [Wk Wv].
    cbn [ent_wf] in H. apply andb_prop in H as [H Hwv]. apply andb_prop in H as [H Hwk]. apply andb_prop in H as [Hkt Hvt].
    destruct (none_or_weight kn true true Wk Hwk) as [K1 K2]. destruct (none_or_weight vn true true Wv Hwv) as [V1 V2].
    cbn [ent_pre ent_toks]. rewrite !app_length.
    destruct kt, vt; cbn [flag length orb andb] in *.
    + lia.
    + lia.
    + apply andb_prop in Hkt as [Hkn _]. destruct kn; try discriminate. cbn [pre_events tokens_of length] in *. lia.
    + apply andb_prop in Hkt as [_ ?]. discriminate.
  - (* flow sequence *)
    intros pr ents tr HF b i H. cbn [wf] in H. apply andb_prop in H as [H _].
    cbn [pre_events tokens_of length]. rewrite !app_length. cbn [length]. rewrite !app_length. cbn [length].
    pose proof (fsep_length (map (fsent_toks tokens_of) ents)) as Hs. rewrite concat_map_flat in Hs.
    enough (length (flat_map (fsent_pre pre_events) ents) <= 4 * length (flat_map (fsent_toks tokens_of) ents))%nat by (destruct i; lia).
    apply flat_map_le. rewrite Forall_forall in *. intros en Hx. rewrite forallb_forall in H.
    specialize (H _ Hx). specialize (HF _ Hx). destruct en as [nd | [kn [vt vn]]]; cbn [fsent_wf fsent_pre fsent_toks] in *.
    + specialize (HF _ _ H). cbn beta iota in HF. lia.
    + destruct HF as [Wk Wv]. apply andb_prop in H as [H Hwv]. apply andb_prop in H as [Hwk Hvt].
      destruct (none_or_weight kn false false Wk Hwk) as [K1 K2]. destruct (none_or_weight vn false false Wv Hwv) as [V1 V2].
      cbn [length]. rewrite !app_length. cbn [length]. rewrite ?app_length. cbn [length]. destruct vt; cbn [flag length]; lia.
  - (* flow mapping *)
    intros pr ents tr HF b i H. cbn [wf] in H. apply andb_prop in H as [H _].
    cbn [pre_events tokens_of length]. rewrite !app_length. cbn [length]. rewrite !app_length. cbn [length].
    pose proof (fsep_length (map (ent_toks tokens_of) ents)) as Hs. rewrite concat_map_flat in Hs.
    enough (length (flat_map (ent_pre pre_events) ents) <= 4 * length (flat_map (ent_toks tokens_of) ents))%nat by (destruct i; lia).
    apply flat_map_le. rewrite Forall_forall in *. intros [[kt kn] [vt vn]] Hx. rewrite forallb_forall in H.
    specialize (H _ Hx). specialize (HF _ Hx). cbn [fst snd] in HF. destruct HF as [Wk Wv].
    cbn [fment_wf] in H. apply andb_prop in H as [H Hkt]. apply andb_prop in H as [H Hwv]. apply andb_prop in H as [Hvt Hwk].
    destruct (none_or_weight kn false false Wk Hwk) as [K1 K2]. destruct (none_or_weight vn false false Wv Hwv) as [V1 V2].
    cbn [ent_pre ent_toks]. rewrite !app_length.
    destruct kt, vt; cbn [flag length orb andb] in *.
    + lia.
    + lia.
    + destruct kn; try discriminate. cbn [pre_events tokens_of length] in *. lia.
    + destruct (is_none kn); [discriminate|]. specialize (K2 eq_refl). cbn [orb] in Hvt. destruct vn; try discriminate.
      cbn [pre_events tokens_of length] in *. lia.
Qed.

Lemma root_weight es t : wf_root es t = true ->
  (length (pre_events t) + 2 <= 4 * (length (flag es TDocumentStart) + length (tokens_of t)))%nat.
Proof.
  unfold wf_root. destruct (is_none t) eqn:EN.
  - intros ->. destruct t; try discriminate. cbn. lia.
  - intros H. pose proof (weight_all t true false H) as HW. cbn beta iota in HW. lia.
Qed.

Lemma docs_weight ds : forall closed keep prev next, docs_wf closed ds = true ->
  (length (docs_events keep prev next ds) <= 4 * length (flat_map doc_toks ds))%nat.
Proof.
  induction ds as [|d r IH]; intros closed keep prev next Hw; cbn [docs_events flat_map length]; [lia|].
  cbn [docs_wf] in Hw. apply andb_prop in Hw as [Hw Hwr]. apply andb_prop in Hw as [_ Hroot].
  specialize (IH _ keep (doc_tags keep prev d) (ae_next (env_after (doc_env next) (pre_events (ld_root d)))) Hwr).
  pose proof (root_weight _ _ Hroot) as HR.
  rewrite !app_length. cbn [length]. rewrite number_length.
  assert (Hd : (length (flag (ld_start d) TDocumentStart) + length (tokens_of (ld_root d)) <= length (doc_toks d))%nat)
    by (unfold doc_toks; rewrite !app_length; lia).
  lia.
Qed.

Lemma stream_fuel ds (toks : list token) keep : docs_wf true ds = true -> map snd toks = stream_toks ds ->
  (length (stream_events keep ds) < 4 * length toks + 40)%nat.
Proof.
  intros Hw Hm. assert (HL : length toks = length (stream_toks ds)) by (rewrite <- Hm, map_length; reflexivity).
  rewrite HL. unfold stream_events, stream_toks.
  cbn [length]. rewrite !app_length. cbn [length].
  pose proof (docs_weight ds true keep [] 1%N Hw). lia.
Qed.

Lemma wrap_fuel es ee t (toks : list token) : wf_root es t = true -> map snd toks = wrap es ee (tokens_of t) ->
  (length (wrap_events es (events_of t)) < 4 * length toks + 40)%nat.
Proof.
  intros Hw Hm. assert (HL : length toks = length (wrap es ee (tokens_of t))) by (rewrite <- Hm, map_length; reflexivity).
  rewrite HL. unfold wrap_events, wrap, events_of.
  cbn [length]. rewrite !app_length. cbn [length]. rewrite ?app_length, number_length. cbn [length].
  pose proof (root_weight _ _ Hw). lia.
Qed.

Theorem parse_tokens_stream ds toks keep se :
  docs_wf true ds = true -> docs_bound keep [] 1%N ds = true ->
  map snd toks = stream_toks ds ->
  map fst (fst (parse_tokens toks se keep)) = stream_events keep ds /\ snd (parse_tokens toks se keep) = PDone.
Proof.
  intros Hw Hb Hm. exact (parse_stream ds toks keep se _ Hw Hb Hm (stream_fuel ds toks keep Hw Hm)).
Qed.

Theorem parse_tokens_wrap t es ee toks keep se :
  wf_root es t = true -> bound [] env0 (pre_events t) = true ->
  map snd toks = wrap es ee (tokens_of t) ->
  map fst (fst (parse_tokens toks se keep)) = wrap_events es (events_of t) /\ snd (parse_tokens toks se keep) = PDone.
Proof.
  intros Hw Hb Hm. exact (parse_wrap t es ee toks keep se _ Hw Hb Hm (wrap_fuel es ee t toks Hw Hm)).
Qed.
