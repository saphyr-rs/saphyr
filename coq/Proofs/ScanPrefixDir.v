(* C15 prefix stability of the scanner (see ScanPrefix.v): the family of DIRECTIVES and TAGS (Model/SDir.v) under the
   state relation [SH d] of ScanPrefix.v.

     scan_tag_ok       : forall d, shf_scan_tag d
     scan_directive_ok : forall d, shf_scan_directive d

   Port of ScanShiftDir.v.  Side 1 reads a text that ends, side 2 the same text followed by the marker line.  The
   scanners of this family never consume a line break except the final [skip_linebreak] of scan_directive, so side 1
   never stands at the end of its text inside them: the invariant [rm s1 <> []] is carried through every helper
   (precondition where a class that is not blind is tested - is_uri_char, is_tag_char, is_blank_or_breakz, '.' - and
   postcondition [bpost_n]), and removes [b1] by [SH_b1_in].  TWO fuels everywhere. *)
From Coq Require Import List NArith ZArith Bool Arith Lia.
Import ListNotations.
Require Import Parser SBase SPrim SDir SScalar SFetch ScanPrefix ScanPrefixPrim.
Local Open Scope nat_scope.

(* both sides branch on the same (syntactically equal) test *)
Ltac bif :=
  cbv beta;
  match goal with |- swp _ (if ?b then _ else _) (if ?b then _ else _) _ _ _ => destruct b end.

Lemma alpha_nbz c : is_alpha c = true -> nbz c.
Proof. intros E. nbz_by E. Qed.
Lemma digit_nbz c : is_digit c = true -> nbz c.
Proof. intros E. nbz_by E. Qed.
Lemma hex_nbz c : is_hex c = true -> nbz c.
Proof. intros E. nbz_by E. Qed.
Lemma uri_char_nbz c : is_uri_char c = true -> nbz c.
Proof. intros E. nbz_by E. Qed.
Lemma tag_char_nbz c : is_tag_char c = true -> nbz c.
Proof. intros E. nbz_by E. Qed.
Lemma eq_nbz c k : c = k -> is_breakz k = false -> nbz c.
Proof. intros -> E. exact E. Qed.

Section BrkDir.
Variable d : list chr.
Local Notation bwp := (swp d).

(* [bpost_n VR]: values related, states related, side 1 not at the end of its text *)
Definition bpost_n {A1 A2} (VR : A1 -> A2 -> Prop) : A1 -> bst -> A2 -> bst -> Prop :=
  fun a1 t1 a2 t2 => VR a1 a2 /\ SH d t1 t2 /\ rm t1 <> [].

Lemma bwp_call_n {A B1 B2} (m1 m2 : BM A) (f1 : A -> BM B1) (f2 : A -> BM B2) (Q : B1 -> bst -> B2 -> bst -> Prop) s1 s2 :
  bwp m1 m2 (bpost_n eq) s1 s2 ->
  (forall a t1 t2, SH d t1 t2 -> rm t1 <> [] -> bwp (f1 a) (f2 a) Q t1 t2) ->
  bwp (bind m1 f1) (bind m2 f2) Q s1 s2.
Proof.
  intros H HK. apply bwp_bind. eapply bwp_mono; [exact H|]. intros a1 t1 a2 t2 (<- & HB & HN). apply HK; assumption.
Qed.
Lemma bwp_ret_n {A1 A2} (VR : A1 -> A2 -> Prop) a1 a2 s1 s2 :
  VR a1 a2 -> SH d s1 s2 -> rm s1 <> [] -> bwp (ret a1) (ret a2) (bpost_n VR) s1 s2.
Proof. intros V H HN. apply bwp_ret. split; [exact V|split; [exact H|exact HN]]. Qed.

(* scan_uri_escapes *)
(* the test of one round: '%' followed by two hex digits *)
Definition esc_ok (s : bst) : bool := ((rn s 0 =? 37)%N && is_hex (rn s 1) && is_hex (rn s 2)).

Lemma esc_brk s1 s2 : SH d s1 s2 ->
  esc_ok s2 = esc_ok s1 /\
  (esc_ok s1 = true -> noLF 3 (rm s1) /\ rn s2 1 = rn s1 1 /\ rn s2 2 = rn s1 2).
Proof.
  intros H. unfold esc_ok.
  rewrite (SH_rn0 H), (SH_rn1' H), (SH_rn2' H), (b1_eqb _ 37%N) by reflexivity. rewrite !b1_is_hex.
  split; [reflexivity|].
  intros E. apply andb_true_iff in E. destruct E as [E Eh2]. apply andb_true_iff in E. destruct E as [E0 Eh1].
  assert (N0 : nbz (rn s1 0)) by (apply (lit_eq_nbz _ 37%N); [reflexivity|exact E0]).
  assert (N1 : nbz (rn s1 1)) by (apply hex_nbz; exact Eh1).
  assert (N2 : nbz (rn s1 2)) by (apply hex_nbz; exact Eh2).
  split; [apply noLF_S; [apply noLF_S; [apply noLF_1; exact N0|exact N1]|exact N2]|].
  rewrite !b1_nbz by assumption. split; reflexivity.
Qed.

Lemma bwp_scan_uri_escapes mk1 mk2 s1 s2 : SH d s1 s2 -> MS d mk1 mk2 ->
  bwp (scan_uri_escapes sops mk1) (scan_uri_escapes sops mk2) (bpost_n eq) s1 s2.
Proof.
  intros H HM. cbv beta delta [scan_uri_escapes].
  match goal with |- swp _ (?g1 5 0%N 0%N 0%N true) (?g2 5 0%N 0%N 0%N true) _ _ _ =>
    cut (forall f1 f2 w ln cd fs u1 u2, SH d u1 u2 -> bwp (g1 f1 w ln cd fs) (g2 f2 w ln cd fs) (bpost_n eq) u1 u2);
    [intros HL; apply HL; exact H|] end.
  clear s1 s2 H. induction f1 as [|f1 IH]; intros f2 w ln cd fs s1 s2 H; [exact I|].
  destruct f2 as [|f2]; [apply bwp_oof_r|].
  cbv beta iota zeta.
  apply bwp_bind. apply (bwp_look d); [exact H|]. intros u1 u2 HU _ _ _ _ _.
  apply bwp_bind. apply bwp_peekn_raw. cbv beta.
  apply bwp_bind. apply bwp_peekn_raw. cbv beta.
  apply bwp_bind. apply bwp_peekn_raw. cbv beta.
  destruct (esc_brk u1 u2 HU) as [EC EA]. unfold esc_ok in EC, EA. rewrite EC.
  destruct ((rn u1 0 =? 37)%N && is_hex (rn u1 1) && is_hex (rn u1 2)) eqn:Ee; cbn [negb];
    [|apply bwp_fail; exact HM].
  destruct (EA eq_refl) as (L3 & E1 & E2). rewrite E1, E2.
  apply bwp_bind.
  match goal with |- swp _ _ _ ?QQ _ _ => assert (HC : forall r, QQ r u1 r u2) end.
  { intros [w' cd']. cbv beta iota zeta.
    apply bwp_bind. apply (bwp_skip_n_non_blank d); [exact HU|exact L3|lia|]. intros v1 v2 HV RV.
    assert (NEV : rm v1 <> []).
    { rewrite RV. apply (skipn_nonempty_of_noLF d u1 u2); [exact HU|exact L3|lia]. }
    bif.
    - bif; [apply bwp_ret_n; [reflexivity|exact HV|exact NEV]|apply bwp_fail; exact HM].
    - apply IH; exact HV. }
  destruct fs; repeat bif; try (apply bwp_fail; exact HM);
    match goal with |- swp _ (ret ?x) (ret ?x) _ _ _ => apply bwp_ret; exact (HC x) end.
Qed.

(* tags *)
Lemma bwp_scan_tag_handle F1 F2 dflag mk1 mk2 s1 s2 : SH d s1 s2 -> MS d mk1 mk2 ->
  bwp (scan_tag_handle sops F1 dflag mk1) (scan_tag_handle sops F2 dflag mk2) (bpost_n eq) s1 s2.
Proof.
  intros H HM. unfold scan_tag_handle.
  apply bwp_bind. apply (bwp_look_ch d); [exact H|]. intros u1 u2 HU _ _ _ _. b1_norm.
  destruct (N.eqb_spec (rn u1 0) 33) as [E33|N33]; cbn [negb]; [|apply bwp_fail; exact HM].
  assert (N0 : nbz (rn u1 0)) by (apply (eq_nbz _ _ E33); reflexivity).
  apply bwp_bind. apply (bwp_skip_non_blank d); [exact HU|exact N0|]. intros v1 v2 HV RV.
  assert (NEV : rm v1 <> []) by (exact (SH_ne_tl d _ _ _ HU N0 RV)).
  apply bwp_bind. apply (bwp_in_fetch_while_alpha d); [exact HV|]. intros r w1 w2 HW _ _ _ NW.
  assert (NEW : rm w1 <> []) by (exact (NW NEV)).
  apply bwp_bind. apply (bwp_adv_mark d); [exact HW|intros E; contradiction|]. intros x1 x2 HX RX.
  assert (NEX : rm x1 <> []) by (exact (SH_ne_eq _ _ NEW RX)).
  apply bwp_bind. apply (bwp_peek d); [exact HX|]. b1_norm.
  destruct (N.eqb_spec (rn x1 0) 33) as [E|N].
  - assert (Nx : nbz (rn x1 0)) by (apply (eq_nbz _ _ E); reflexivity).
    apply bwp_bind. apply (bwp_skip_non_blank d); [exact HX|exact Nx|]. intros y1 y2 HY RY.
    apply bwp_ret_n; [reflexivity|exact HY|exact (SH_ne_tl d _ _ _ HX Nx RY)].
  - bif; [apply bwp_fail; exact HM|apply bwp_ret_n; [reflexivity|exact HX|exact NEX]].
Qed.

(* the generic uri loop; [p] is is_uri_char or is_tag_char: not blind, false on breaks and NUL *)
Lemma bwp_uri_loop F1 F2 p mk1 mk2 acc s1 s2 : SH d s1 s2 -> MS d mk1 mk2 -> (forall c, p c = true -> nbz c) ->
  rm s1 <> [] ->
  bwp (uri_loop sops F1 p mk1 acc) (uri_loop sops F2 p mk2 acc) (bpost_n eq) s1 s2.
Proof.
  intros H HM Hp NE. unfold uri_loop.
  match goal with |- swp _ (?g1 F1 acc 0%N) (?g2 F2 acc 0%N) _ _ _ =>
    cut (forall f1 f2 a n u1 u2, SH d u1 u2 -> rm u1 <> [] -> bwp (g1 f1 a n) (g2 f2 a n) (bpost_n eq) u1 u2);
    [intros HL; apply HL; [exact H|exact NE]|] end.
  clear s1 s2 H NE. induction f1 as [|f1 IH]; intros f2 a n s1 s2 H NE; [exact I|].
  destruct f2 as [|f2]; [apply bwp_oof_r|].
  cbv beta iota zeta.
  apply bwp_bind. apply (bwp_look_ch d); [exact H|]. intros u1 u2 HU RU _ _ _.
  assert (NEU : rm u1 <> []) by (exact (SH_ne_eq _ _ NE RU)).
  rewrite (SH_b1_in d _ _ HU NEU).
  destruct (p (rn u1 0)) eqn:Ep; [|apply bwp_ret_n; [reflexivity|exact HU|exact NEU]].
  assert (N0 : nbz (rn u1 0)) by (apply Hp; exact Ep).
  bif.
  - eapply bwp_call_n; [apply bwp_scan_uri_escapes; [exact HU|exact HM]|]. intros e v1 v2 HV NEV.
    apply IH; [exact HV|exact NEV].
  - apply bwp_bind. apply (bwp_skip_non_blank d); [exact HU|exact N0|]. intros v1 v2 HV RV.
    apply IH; [exact HV|exact (SH_ne_tl d _ _ _ HU N0 RV)].
Qed.

Lemma bwp_scan_tag_prefix F1 F2 mk1 mk2 s1 s2 : SH d s1 s2 -> MS d mk1 mk2 -> rm s1 <> [] ->
  bwp (scan_tag_prefix sops F1 mk1) (scan_tag_prefix sops F2 mk2) (bpost_n eq) s1 s2.
Proof.
  intros H HM NE. unfold scan_tag_prefix.
  apply bwp_bind. apply (bwp_look_ch d); [exact H|]. intros u1 u2 HU RU _ _ _.
  assert (NEU : rm u1 <> []) by (exact (SH_ne_eq _ _ NE RU)).
  rewrite (SH_b1_in d _ _ HU NEU).
  apply bwp_bind.
  match goal with |- swp _ _ _ ?QQ _ _ =>
    assert (HC : forall acc t1 t2, SH d t1 t2 -> rm t1 <> [] -> QQ acc t1 acc t2) end.
  { intros acc t1 t2 HT NET. cbv beta.
    eapply bwp_call_n; [apply bwp_uri_loop; [exact HT|exact HM|exact uri_char_nbz|exact NET]|].
    intros r v1 v2 HV NEV. apply bwp_ret_n; [reflexivity|exact HV|exact NEV]. }
  destruct (N.eqb_spec (rn u1 0) 33) as [E|N].
  - assert (N0 : nbz (rn u1 0)) by (apply (eq_nbz _ _ E); reflexivity).
    apply bwp_bind. apply (bwp_skip_non_blank d); [exact HU|exact N0|]. intros v1 v2 HV RV.
    apply bwp_ret. apply HC; [exact HV|exact (SH_ne_tl d _ _ _ HU N0 RV)].
  - destruct (is_tag_char (rn u1 0)) eqn:Et; cbn [negb]; [|apply bwp_fail; exact HM].
    assert (N0 : nbz (rn u1 0)) by (apply tag_char_nbz; exact Et).
    bif.
    + eapply bwp_call_n; [apply bwp_scan_uri_escapes; [exact HU|exact HM]|]. intros e v1 v2 HV NEV.
      apply bwp_ret. apply HC; [exact HV|exact NEV].
    + apply bwp_bind. apply (bwp_skip_non_blank d); [exact HU|exact N0|]. intros v1 v2 HV RV.
      apply bwp_ret. apply HC; [exact HV|exact (SH_ne_tl d _ _ _ HU N0 RV)].
Qed.

(* scan_verbatim_tag skips "!<" at once: neither may be a break *)
Lemma bwp_scan_verbatim_tag F1 F2 mk1 mk2 s1 s2 : SH d s1 s2 -> MS d mk1 mk2 -> noLF 2 (rm s1) ->
  bwp (scan_verbatim_tag sops F1 mk1) (scan_verbatim_tag sops F2 mk2) (bpost_n eq) s1 s2.
Proof.
  intros H HM L2. unfold scan_verbatim_tag.
  assert (N0 : nbz (rn s1 0)) by (apply (L2 0); lia).
  apply bwp_bind. apply (bwp_skip_non_blank d); [exact H|exact N0|]. intros u1 u2 HU RU.
  assert (N1 : nbz (rn u1 0)) by (rewrite (rn_tl u1 s1 0 RU); apply (L2 1); lia).
  apply bwp_bind. apply (bwp_skip_non_blank d); [exact HU|exact N1|]. intros v1 v2 HV RV.
  assert (NEV : rm v1 <> []) by (exact (SH_ne_tl d _ _ _ HU N1 RV)).
  eapply bwp_call_n; [apply bwp_uri_loop; [exact HV|exact HM|exact uri_char_nbz|exact NEV]|].
  intros r w1 w2 HW NEW.
  apply bwp_bind. apply (bwp_peek d); [exact HW|]. b1_norm.
  destruct (N.eqb_spec (rn w1 0) 62) as [E|N]; cbn [negb]; [|apply bwp_fail; exact HM].
  assert (Nw : nbz (rn w1 0)) by (apply (eq_nbz _ _ E); reflexivity).
  apply bwp_bind. apply (bwp_skip_non_blank d); [exact HW|exact Nw|]. intros x1 x2 HX RX.
  apply bwp_ret_n; [reflexivity|exact HX|exact (SH_ne_tl d _ _ _ HW Nw RX)].
Qed.

Lemma bwp_scan_tag_shorthand_suffix F1 F2 head mk1 mk2 s1 s2 : SH d s1 s2 -> MS d mk1 mk2 -> rm s1 <> [] ->
  bwp (scan_tag_shorthand_suffix sops F1 head mk1) (scan_tag_shorthand_suffix sops F2 head mk2) (bpost_n eq) s1 s2.
Proof.
  intros H HM NE. unfold scan_tag_shorthand_suffix. cbv beta zeta.
  eapply bwp_call_n; [apply bwp_uri_loop; [exact H|exact HM|exact tag_char_nbz|exact NE]|].
  intros r u1 u2 HU NEU.
  bif; [apply bwp_fail; exact HM|apply bwp_ret_n; [reflexivity|exact HU|exact NEU]].
Qed.

Theorem scan_tag_ok : shf_scan_tag d.
Proof.
  unfold shf_scan_tag. intros F1 F2 s1 s2 H N0. unfold scan_tag.
  apply bwp_bind. apply (bwp_mark d); [exact H|]. intros HM0.
  apply bwp_bind. apply (bwp_look d); [exact H|]. intros u1 u2 HU RU _ _ _ _.
  assert (N0u : nbz (rn u1 0)) by (rewrite (rn_eq u1 s1 0 RU); exact N0).
  apply bwp_bind. apply (bwp_nth_char_is d); [exact HU|apply noLF_1; exact N0u|reflexivity|].
  apply bwp_bind.
  match goal with |- swp _ _ _ ?QQ _ _ =>
    assert (HC : forall hs t1 t2, SH d t1 t2 -> rm t1 <> [] -> QQ hs t1 hs t2) end.
  { intros hs t1 t2 HT NET. cbv beta.
    apply bwp_bind. apply (bwp_look_ch d); [exact HT|]. intros v1 v2 HV RV _ _ _.
    assert (NEV : rm v1 <> []) by (exact (SH_ne_eq _ _ NET RV)).
    rewrite (SH_b1_in d _ _ HV NEV).
    apply bwp_bind. apply (bwp_flow_level d); [exact HV|]. cbv beta.
    bif; [|apply bwp_fail; exact HM0].
    apply bwp_bind. apply (bwp_mark d); [exact HV|]. intros HM1.
    apply bwp_ret_bpost; [|exact HV]. apply TS_mk. apply SPS_mk; assumption. }
  destruct (N.eqb_spec (rn u1 1) 60) as [E60|N60].
  - assert (N1u : nbz (rn u1 1)) by (apply (eq_nbz _ _ E60); reflexivity).
    eapply bwp_call_n;
      [apply bwp_scan_verbatim_tag; [exact HU|exact HM0|apply noLF_S; [apply noLF_1; exact N0u|exact N1u]]|].
    intros sfx t1 t2 HT NET. apply bwp_ret. apply HC; [exact HT|exact NET].
  - eapply bwp_call_n; [apply bwp_scan_tag_handle; [exact HU|exact HM0]|]. intros h t1 t2 HT NET.
    bif.
    + eapply bwp_call_n; [apply bwp_scan_tag_shorthand_suffix; [exact HT|exact HM0|exact NET]|].
      intros sfx v1 v2 HV NEV. apply bwp_ret. apply HC; [exact HV|exact NEV].
    + eapply bwp_call_n; [apply bwp_scan_tag_shorthand_suffix; [exact HT|exact HM0|exact NET]|].
      intros sfx v1 v2 HV NEV. destruct sfx; apply bwp_ret; (apply HC; [exact HV|exact NEV]).
Qed.

(* directives *)
(* the modelled u32-overflow panic (site 120) is the same panic on both sides *)
Lemma bwp_version_number F1 F2 mk1 mk2 s1 s2 : SH d s1 s2 -> MS d mk1 mk2 -> rm s1 <> [] ->
  bwp (scan_version_directive_number sops F1 mk1) (scan_version_directive_number sops F2 mk2) (bpost_n eq) s1 s2.
Proof.
  intros H HM NE. unfold scan_version_directive_number.
  match goal with |- swp _ (?g1 F1 0%N 0%N) (?g2 F2 0%N 0%N) _ _ _ =>
    cut (forall f1 f2 val len u1 u2, SH d u1 u2 -> rm u1 <> [] ->
           bwp (g1 f1 val len) (g2 f2 val len) (bpost_n eq) u1 u2);
    [intros HL; apply HL; [exact H|exact NE]|] end.
  clear s1 s2 H NE. induction f1 as [|f1 IH]; intros f2 val len s1 s2 H NE; [exact I|].
  destruct f2 as [|f2]; [apply bwp_oof_r|].
  cbv beta iota zeta.
  apply bwp_bind. apply (bwp_look_ch d); [exact H|]. intros u1 u2 HU RU _ _ _.
  assert (NEU : rm u1 <> []) by (exact (SH_ne_eq _ _ NE RU)).
  rewrite (SH_b1_in d _ _ HU NEU).
  destruct (is_digit (rn u1 0)) eqn:Ed.
  - assert (N0 : nbz (rn u1 0)) by (apply digit_nbz; exact Ed).
    bif; [apply bwp_fail; exact HM|].
    apply bwp_bind. bif; [apply bwp_panic_l|]. apply bwp_ret. cbv beta.
    apply bwp_bind. apply (bwp_skip_non_blank d); [exact HU|exact N0|]. intros v1 v2 HV RV.
    apply IH; [exact HV|exact (SH_ne_tl d _ _ _ HU N0 RV)].
  - bif; [apply bwp_fail; exact HM|apply bwp_ret_n; [reflexivity|exact HU|exact NEU]].
Qed.

Lemma bwp_version_value F1 F2 mk1 mk2 s1 s2 : SH d s1 s2 -> MS d mk1 mk2 -> rm s1 <> [] ->
  bwp (scan_version_directive_value sops F1 mk1) (scan_version_directive_value sops F2 mk2) (bpost_n (TS d)) s1 s2.
Proof.
  intros H HM NE. unfold scan_version_directive_value.
  apply bwp_bind. apply (bwp_in_skip_while_blank d); [exact H|]. intros n u1 u2 HU _ _ _ NU.
  assert (NEU : rm u1 <> []) by (exact (NU NE)).
  apply bwp_bind. apply (bwp_adv_mark d); [exact HU|intros E; contradiction|]. intros v1 v2 HV RV.
  assert (NEV : rm v1 <> []) by (exact (SH_ne_eq _ _ NEU RV)).
  eapply bwp_call_n; [apply bwp_version_number; [exact HV|exact HM|exact NEV]|]. intros major w1 w2 HW NEW.
  apply bwp_bind. apply (bwp_peek d); [exact HW|]. rewrite (SH_b1_in d _ _ HW NEW).
  destruct (N.eqb_spec (rn w1 0) 46) as [E|N]; cbn [negb]; [|apply bwp_fail; exact HM].
  assert (Nw : nbz (rn w1 0)) by (apply (eq_nbz _ _ E); reflexivity).
  apply bwp_bind. apply (bwp_skip_non_blank d); [exact HW|exact Nw|]. intros x1 x2 HX RX.
  eapply bwp_call_n; [apply bwp_version_number; [exact HX|exact HM|exact (SH_ne_tl d _ _ _ HW Nw RX)]|].
  intros minor y1 y2 HY NEY.
  apply bwp_bind. apply (bwp_mark d); [exact HY|]. intros HM1.
  apply bwp_ret_n; [|exact HY|exact NEY]. apply TS_mk. apply SPS_mk; assumption.
Qed.

Lemma bwp_tag_directive_value F1 F2 mk1 mk2 s1 s2 : SH d s1 s2 -> MS d mk1 mk2 -> rm s1 <> [] ->
  bwp (scan_tag_directive_value sops F1 mk1) (scan_tag_directive_value sops F2 mk2) (bpost_n (TS d)) s1 s2.
Proof.
  intros H HM NE. unfold scan_tag_directive_value.
  apply bwp_bind. apply (bwp_in_skip_while_blank d); [exact H|]. intros n u1 u2 HU _ _ _ NU.
  assert (NEU : rm u1 <> []) by (exact (NU NE)).
  apply bwp_bind. apply (bwp_adv_mark d); [exact HU|intros E; contradiction|]. intros v1 v2 HV _.
  eapply bwp_call_n; [apply bwp_scan_tag_handle; [exact HV|exact HM]|]. intros h w1 w2 HW NEW.
  apply bwp_bind. apply (bwp_in_skip_while_blank d); [exact HW|]. intros n' x1 x2 HX _ _ _ NX.
  assert (NEX : rm x1 <> []) by (exact (NX NEW)).
  apply bwp_bind. apply (bwp_adv_mark d); [exact HX|intros E; contradiction|]. intros y1 y2 HY RY.
  assert (NEY : rm y1 <> []) by (exact (SH_ne_eq _ _ NEX RY)).
  eapply bwp_call_n; [apply bwp_scan_tag_prefix; [exact HY|exact HM|exact NEY]|]. intros p z1 z2 HZ NEZ.
  apply bwp_bind. apply (bwp_look d); [exact HZ|]. intros a1 a2 HA RA _ _ _ _.
  assert (NEA : rm a1 <> []) by (exact (SH_ne_eq _ _ NEZ RA)).
  apply bwp_bind. apply (bwp_peek d); [exact HA|]. rewrite (SH_b1_in d _ _ HA NEA).
  bif; [|apply bwp_fail; exact HM].
  apply bwp_bind. apply (bwp_mark d); [exact HA|]. intros HM1.
  apply bwp_ret_n; [|exact HA|exact NEA]. apply TS_mk. apply SPS_mk; assumption.
Qed.

Lemma bwp_directive_name F1 F2 s1 s2 : SH d s1 s2 -> rm s1 <> [] ->
  bwp (scan_directive_name sops F1) (scan_directive_name sops F2) (bpost_n eq) s1 s2.
Proof.
  intros H NE. unfold scan_directive_name.
  apply bwp_bind. apply (bwp_mark d); [exact H|]. intros HM0.
  apply bwp_bind. apply (bwp_in_fetch_while_alpha d); [exact H|]. intros r u1 u2 HU _ _ _ NU.
  assert (NEU : rm u1 <> []) by (exact (NU NE)).
  apply bwp_bind. apply (bwp_adv_mark d); [exact HU|intros E; contradiction|]. intros v1 v2 HV RV.
  assert (NEV : rm v1 <> []) by (exact (SH_ne_eq _ _ NEU RV)).
  destruct (fst r) as [|x l]; [apply bwp_fail; exact HM0|].
  apply bwp_bind. apply (bwp_peek d); [exact HV|]. rewrite (SH_b1_in d _ _ HV NEV).
  bif; [apply bwp_ret_n; [reflexivity|exact HV|exact NEV]|apply bwp_fail; exact HM0].
Qed.

Theorem scan_directive_ok : shf_scan_directive d.
Proof.
  unfold shf_scan_directive. intros F1 F2 s1 s2 H N0. unfold scan_directive.
  apply bwp_bind. apply (bwp_mark d); [exact H|]. intros HM0.
  apply bwp_bind. apply (bwp_skip_non_blank d); [exact H|exact N0|]. intros u1 u2 HU RU.
  assert (NEU : rm u1 <> []) by (exact (SH_ne_tl d _ _ _ H N0 RU)).
  eapply bwp_call_n; [apply bwp_directive_name; [exact HU|exact NEU]|]. intros name v1 v2 HV NEV.
  apply bwp_bind.
  match goal with |- swp _ _ _ ?QQ _ _ =>
    assert (HC : forall tk1 tk2 t1 t2, TS d tk1 tk2 -> SH d t1 t2 -> rm t1 <> [] -> QQ tk1 t1 tk2 t2) end.
  { intros tk1 tk2 t1 t2 HTR HT NET. cbv beta.
    apply bwp_bind. eapply bwp_mono; [apply (skip_ws_to_eol_ok d); exact HT|].
    intros tw w1 tw2 w2 (<- & HW & HNE). specialize (HNE NET).
    apply bwp_bind. apply (bwp_next_is_in d); [exact HW|exact HNE|].
    bif; [|apply bwp_fail; exact HM0].
    (* the line break that ends the directive: the same characters on both sides *)
    apply bwp_bind. apply (bwp_look d); [exact HW|]. intros x1 x2 HX _ _ _ _ _.
    apply bwp_bind. apply (bwp_skip_linebreak d); [exact HX|]. intros y1 y2 HY _.
    apply bwp_ret_bpost; [exact HTR|exact HY]. }
  bif.
  - eapply bwp_mono; [apply bwp_version_value; [exact HV|exact HM0|exact NEV]|].
    intros tk1 t1 tk2 t2 (HTR & HT & NET). apply HC; assumption.
  - bif.
    + eapply bwp_mono; [apply bwp_tag_directive_value; [exact HV|exact HM0|exact NEV]|].
      intros tk1 t1 tk2 t2 (HTR & HT & NET). apply HC; assumption.
    + apply bwp_bind. apply (bwp_in_skip_while_non_breakz d); [exact HV|exact NEV|]. intros n t1 t2 HT _ _ _ NET.
      apply bwp_bind. apply (bwp_adv_mark d); [exact HT|intros E; contradiction|]. intros w1 w2 HW RW.
      apply bwp_bind. apply (bwp_mark d); [exact HW|]. intros HM1.
      apply bwp_ret. apply HC; [|exact HW|exact (SH_ne_eq _ _ NET RW)]. apply TS_mk. apply SPS_mk; assumption.
Qed.

End BrkDir.

Print Assumptions scan_tag_ok.
Print Assumptions scan_directive_ok.
Check scan_tag_ok.
Check scan_directive_ok.
