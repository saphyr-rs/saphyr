(* Joint proof "the scanner over the buffered input computes what the scanner over the string input computes"
   (see SCANREL.md): ASSEMBLY.

   From related states the token iterators [scan_all] over the string input and over the buffered input (any
   capacity >= 8, the same fuels) return the same token list and the same end - unless one of the two runs ends in
   [SFuel] or [SPanic]; even then the tokens delivered by the run that broke off are a prefix of the other run's
   tokens.  The initial states are related; hence the theorem for a whole input, and for the pipelines
   [run_str] / [run_buf cap] (scanner + parser).

   The six character-level contracts (directive, tag, anchor, flow / plain / block scalar) are premises. *)
From Coq Require Import List NArith ZArith Bool Arith Lia.
Import ListNotations.
Require Import Parser SBase SPrim SDir SScalar SFetch SBuf Pipe InputRefine ScanRel ScanRelPrim ScanRelFetch ParserView.
Require ScanSafeTop DocRun.
Local Open Scope nat_scope.

(* how a run of the iterator ended: properly (end of stream, or a scanner error), or not *)
Definition se_proper (e : scan_end) : Prop := match e with SEnded | SError _ _ => True | SPanic _ | SFuel => False end.
Definition se_bad (e : scan_end) : Prop := match e with SPanic _ | SFuel => True | SEnded | SError _ _ => False end.
Lemma se_proper_or_bad e : se_proper e \/ se_bad e.
Proof. destruct e; cbn; auto. Qed.
Lemma se_proper_not_bad e : se_proper e -> se_bad e -> False.
Proof. destruct e; cbn; auto. Qed.

(* the same for the pipeline *)
Definition pend_bad (e : pend) : Prop := match e with PPanic _ | PFuel => True | _ => False end.

(* the iterator only appends to what it has collected *)
Lemma scan_all_extends {I} (ops : InputOps I) F N : forall s acc,
  exists x, fst (scan_all ops F N s acc) = rev acc ++ x.
Proof.
  induction N as [|N IH]; intros s acc; cbn [scan_all].
  - exists []. cbn [fst]. rewrite app_nil_r. reflexivity.
  - destruct (next_token ops F s) as [[[t|] s']| | |]; try (exists []; cbn [fst]; rewrite app_nil_r; reflexivity).
    destruct (IH s' (t :: acc)) as [x Hx]. exists (t :: x). rewrite Hx. cbn [rev]. rewrite <- app_assoc. reflexivity.
Qed.

(* the initial states are related *)
Lemma SR_init orig :
  SR (init_sc {| si_chars := orig; si_look := 0 |}) (init_sc {| b_buf := []; b_rest := orig |}).
Proof.
  split; [|reflexivity]. exists 0. cbn [init_sc sc_in b_buf b_rest si_chars repeat app].
  rewrite app_nil_r. split; [reflexivity|lia].
Qed.

Section RelTop.
Variable cap : nat.
Hypothesis cap_ge : 8 <= cap.
Notation sops := str_ops.
Notation bops := (buf_ops cap).

Hypothesis H_dir : rel_scan_directive cap.
Hypothesis H_tag : rel_scan_tag cap.
Hypothesis H_anchor : rel_scan_anchor cap.
Hypothesis H_flow : rel_scan_flow_scalar cap.
Hypothesis H_plain : rel_scan_plain_scalar cap.
Hypothesis H_block : rel_scan_block_scalar cap.

Let NT := rwp_next_token cap cap_ge H_dir H_tag H_anchor H_flow H_plain H_block.

(* the outcome of the two iterators from related states *)
Definition scan_agree (r1 r2 : list token * scan_end) : Prop :=
  r1 = r2
  \/ (se_bad (snd r1) /\ exists x, fst r2 = fst r1 ++ x)
  \/ (se_bad (snd r2) /\ exists x, fst r1 = fst r2 ++ x).

Theorem scan_all_rel F N : forall s1 s2 acc, SR s1 s2 ->
  scan_agree (scan_all sops F N s1 acc) (scan_all bops F N s2 acc).
Proof.
  induction N as [|N IH]; intros s1 s2 acc HS; [left; reflexivity|].
  pose proof (scan_all_extends sops F (S N) s1 acc) as X1.
  pose proof (scan_all_extends bops F (S N) s2 acc) as X2.
  pose proof (rwp_elim _ _ _ _ _ (NT F s1 s2 HS)) as H.
  cbn [scan_all] in *. revert X1 X2 H.
  destruct (next_token sops F s1) as [[[t1|] u1]|e1 k1|n1|];
    destruct (next_token bops F s2) as [[[t2|] u2]|e2 k2|n2|]; intros X1 X2 H;
    try contradiction;
    try (right; left; split; [exact I|exact X2]);
    try (right; right; split; [exact I|exact X1]).
  - destruct H as [E HU]. inversion E; subst t2. apply IH. exact HU.
  - destruct H as [E _]. discriminate E.
  - destruct H as [E _]. discriminate E.
  - left. reflexivity.
  - destruct H as [-> ->]. left. reflexivity.
Qed.

(* both runs end properly: the same tokens and the same end *)
Corollary scan_all_agree F N s1 s2 acc : SR s1 s2 ->
  se_proper (snd (scan_all sops F N s1 acc)) -> se_proper (snd (scan_all bops F N s2 acc)) ->
  scan_all sops F N s1 acc = scan_all bops F N s2 acc.
Proof.
  intros HS P1 P2. destruct (scan_all_rel F N s1 s2 acc HS) as [E|[[B _]|[B _]]]; [exact E| |].
  - destruct (se_proper_not_bad _ P1 B).
  - destruct (se_proper_not_bad _ P2 B).
Qed.

End RelTop.

(* ---------------- the parser reads its tokens front to back ----------------
   [ext x p]: the parser [p] with the tokens [x] appended to what the scanner will still deliver.  One step of the
   state machine on [p] either asks for a token beyond the end of its list ([Err PErrScan]), or does exactly what it
   does on [ext x p]. *)
Definition ext (x : list token) (p : parser) : parser := set_tok p (p_toks p ++ x) (p_token p).
Definition pe {A} (x : list token) (v : A * parser) : A * parser := (fst v, ext x (snd v)).

Definition rsimG {T} (e : T -> T) (r r' : res T) : Prop :=
  match r with
  | Parser.Ok v => r' = Parser.Ok (e v)
  | Parser.Err PErrScan => True
  | Parser.Err er => r' = Parser.Err er
  | Parser.Panic n => r' = Parser.Panic n
  end.

Lemma rsimG_id {T} (r : res T) : rsimG (fun v => v) r r.
Proof. destruct r as [v|[|s m]|n]; cbn; auto. Qed.
Lemma rsimG_bind {T U} (e1 : T -> T) (e2 : U -> U) (r r' : res T) (k k' : T -> res U) :
  rsimG e1 r r' -> (forall v, rsimG e2 (k v) (k' (e1 v))) ->
  rsimG e2 (match r with Parser.Ok v => k v | Parser.Err e => Parser.Err e | Parser.Panic n => Parser.Panic n end)
           (match r' with Parser.Ok v => k' v | Parser.Err e => Parser.Err e | Parser.Panic n => Parser.Panic n end).
Proof. intros H HK. destruct r as [v|[|s m]|n]; cbn in *; subst; auto. Qed.

(* [ext] commutes with every update of the parser state and is invisible to every field but [p_toks] *)
Lemma pe_pair {A} x (a : A) q : pe x (a, q) = (a, ext x q). Proof. reflexivity. Qed.
Lemma skip_ext x p : skip (ext x p) = ext x (skip p). Proof. reflexivity. Qed.
Lemma set_state_ext x p s : set_state (ext x p) s = ext x (set_state p s). Proof. reflexivity. Qed.
Lemma set_states_ext x p l : set_states (ext x p) l = ext x (set_states p l). Proof. reflexivity. Qed.
Lemma push_state_ext x p s : push_state (ext x p) s = ext x (push_state p s). Proof. reflexivity. Qed.
Lemma set_anchors_ext x p a n : set_anchors (ext x p) a n = ext x (set_anchors p a n). Proof. reflexivity. Qed.
Lemma set_tags_ext x p t : set_tags (ext x p) t = ext x (set_tags p t). Proof. reflexivity. Qed.
Lemma p_toks_ext x p : p_toks (ext x p) = p_toks p ++ x. Proof. reflexivity. Qed.
Lemma p_token_ext x p : p_token (ext x p) = p_token p. Proof. reflexivity. Qed.
Lemma p_states_ext x p : p_states (ext x p) = p_states p. Proof. reflexivity. Qed.
Lemma p_state_ext x p : p_state (ext x p) = p_state p. Proof. reflexivity. Qed.
Lemma p_anchors_ext x p : p_anchors (ext x p) = p_anchors p. Proof. reflexivity. Qed.
Lemma p_anchor_id_ext x p : p_anchor_id (ext x p) = p_anchor_id p. Proof. reflexivity. Qed.
Lemma p_tags_ext x p : p_tags (ext x p) = p_tags p. Proof. reflexivity. Qed.
Lemma p_keep_tags_ext x p : p_keep_tags (ext x p) = p_keep_tags p. Proof. reflexivity. Qed.
Lemma resolve_tag_ext x p a h s : resolve_tag (ext x p) a h s = resolve_tag p a h s. Proof. reflexivity. Qed.
Lemma if_ext x (b : bool) p q : (if b then ext x p else ext x q) = ext x (if b then p else q).
Proof. destruct b; reflexivity. Qed.

(* tokens the parser can still look at without asking the scanner *)
Definition mes (p : parser) : nat := length (p_toks p) + match p_token p with Some _ => 1 | None => 0 end.

Lemma peek_cases x p :
  Parser.peek p = Parser.Err PErrScan
  \/ exists t q, Parser.peek p = Parser.Ok (t, q) /\ Parser.peek (ext x p) = Parser.Ok (t, ext x q)
                 /\ mes q = mes p /\ p_token q = Some t.
Proof.
  unfold Parser.peek. rewrite p_token_ext, p_toks_ext. destruct (p_token p) as [t|] eqn:ET.
  - right. exists t, p. auto.
  - destruct (p_toks p) as [|t r] eqn:ER; [left; reflexivity|]. right.
    exists t, (set_tok p r (Some t)). split; [reflexivity|]. split; [reflexivity|].
    unfold mes. cbn [set_tok p_toks p_token]. rewrite ER, ET. cbn [length]. split; [lia|reflexivity].
Qed.

Lemma peek_sim x p : rsimG (pe x) (Parser.peek p) (Parser.peek (ext x p)).
Proof.
  destruct (peek_cases x p) as [E|(t & q & E & E' & _)]; rewrite E; [exact I|]. rewrite E'. reflexivity.
Qed.
Lemma pop_state_sim x p : rsimG (ext x) (pop_state p) (pop_state (ext x p)).
Proof. unfold pop_state. rewrite p_states_ext. destruct (p_states p); reflexivity. Qed.

(* A read of the token list, and a return to the enclosing state, as steps of a walk along a state function.  The
   other calls ([skip], [set_state], [push_state], ...) commute with [ext x] by computation, so that a step applies
   where the goal has, say, [peek (skip (ext x q))] for [peek (ext x (skip q))] - once it is told [x]. *)
Lemma peek_step {U} x (e : U -> U) p (k k' : token -> parser -> res U) :
  (forall t q, rsimG e (k t q) (k' t (ext x q))) ->
  rsimG e (do (t, q) <- Parser.peek p; k t q) (do (t, q) <- Parser.peek (ext x p); k' t q).
Proof. intros H. apply (rsimG_bind (pe x)); [apply peek_sim|]. intros [t q]. apply H. Qed.
Lemma pop_step {U} x (e : U -> U) p (k k' : parser -> res U) :
  (forall q, rsimG e (k q) (k' (ext x q))) ->
  rsimG e (do q <- pop_state p; k q) (do q <- pop_state (ext x p); k' q).
Proof. intros H. apply (rsimG_bind (ext x)); [apply pop_state_sim|]. exact H. Qed.

Lemma node_props_sim x p t : rsimG (pe x) (node_props p t) (node_props (ext x p) t).
Proof.
  rewrite !node_props_if. destruct (as_anchor (snd t)) as [name|].
  - cbv zeta. unfold register_anchor. apply (peek_step x). intros t2 q.
    destruct (as_tag (snd t2)) as [[h s]|]; [|reflexivity].
    cbv zeta. apply (rsimG_bind (fun v => v)); [apply rsimG_id|]. intros tg. reflexivity.
  - destruct (as_tag (snd t)) as [[h s]|]; [|reflexivity].
    cbv zeta. apply (rsimG_bind (fun v => v)); [apply rsimG_id|]. intros tg.
    apply (peek_step x). intros t2 q. destruct (as_anchor (snd t2)); reflexivity.
Qed.

Lemma empty_or_err_sim x p aid tg sp : rsimG (pe x) (empty_or_err p aid tg sp) (empty_or_err (ext x p) aid tg sp).
Proof. unfold empty_or_err. destruct (has_props aid tg); [|reflexivity]. apply (pop_step x). intros q. reflexivity. Qed.

Lemma node_content_sim x p aid tg b i : rsimG (pe x) (node_content p aid tg b i) (node_content (ext x p) aid tg b i).
Proof.
  rewrite !node_content_if. apply (peek_step x). intros [sp k] q. destruct (as_scalar k) as [[st v]|].
  - apply (pop_step x). intros q2. reflexivity.
  - destruct (tis TBlockEntry k).
    + destruct i; [reflexivity|apply (empty_or_err_sim x)].
    + destruct (tis TFlowSequenceStart k); [reflexivity|]. destruct (tis TFlowMappingStart k); [reflexivity|].
      destruct (tis TBlockSequenceStart k && b); [reflexivity|].
      destruct (tis TBlockMappingStart k && b); [reflexivity|apply (empty_or_err_sim x)].
Qed.

Lemma parse_node_sim x p b i : rsimG (pe x) (parse_node p b i) (parse_node (ext x p) b i).
Proof.
  rewrite !parse_node_if. apply (peek_step x). intros t q. destruct (as_alias (snd t)) as [name|].
  - apply (pop_step x). intros q2. cbv zeta. rewrite skip_ext, p_anchors_ext. destruct (assoc name _); reflexivity.
  - apply (rsimG_bind (pe x)); [apply node_props_sim|]. intros [[aid tg] q2]. apply node_content_sim.
Qed.

Lemma node_or_empty_sim x l p st b i : rsimG (pe x) (node_or_empty l p st b i) (node_or_empty l (ext x p) st b i).
Proof.
  unfold node_or_empty. apply (peek_step x). intros t q.
  destruct (tin l (snd t)); [reflexivity|apply (parse_node_sim x)].
Qed.

Lemma first_skip_sim x p (first : bool) :
  rsimG (ext x) (if first then do (_, q) <- Parser.peek p; Parser.Ok (skip q) else Parser.Ok p)
                (if first then do (_, q) <- Parser.peek (ext x p); Parser.Ok (skip q) else Parser.Ok (ext x p)).
Proof. destruct first; [|reflexivity]. apply (peek_step x). intros t q. reflexivity. Qed.

Lemma stream_start_sim x p : rsimG (pe x) (stream_start p) (stream_start (ext x p)).
Proof. unfold stream_start. apply (peek_step x). intros [sp k] q. destruct k; reflexivity. Qed.

(* the two fuelled loops: their fuel is computed from the token list, and is enough on both sides *)
Lemma mes_skip p t : p_token p = Some t -> S (mes (skip p)) = mes p.
Proof. unfold mes, skip. cbn [set_tok p_toks p_token]. intros ->. lia. Qed.

Lemma process_directives_sim x : forall f f' p vs tags, mes p < f -> mes p + length x < f' ->
  rsimG (ext x) (process_directives f p vs tags) (process_directives f' (ext x p) vs tags).
Proof.
  induction f as [|f IH]; intros f' p vs tags Hf Hf'; [lia|]. destruct f' as [|f']; [lia|].
  cbn [process_directives].
  destruct (peek_cases x p) as [E|(t & q & E & E' & M & C)]; rewrite E; [exact I|]. rewrite E'. cbv beta iota.
  pose proof (mes_skip q t C) as MS.
  destruct t as [sp tk]. destruct tk; try reflexivity.
  - destruct vs; [reflexivity|]. rewrite skip_ext. apply IH; lia.
  - match goal with |- rsimG _ (if ?b then _ else _) _ => destruct b end; [reflexivity|].
    rewrite skip_ext. apply IH; lia.
Qed.
Lemma skip_document_ends_sim x : forall f f' p, mes p < f -> mes p + length x < f' ->
  rsimG (ext x) (skip_document_ends f p) (skip_document_ends f' (ext x p)).
Proof.
  induction f as [|f IH]; intros f' p Hf Hf'; [lia|]. destruct f' as [|f']; [lia|].
  cbn [skip_document_ends].
  destruct (peek_cases x p) as [E|(t & q & E & E' & M & C)]; rewrite E; [exact I|]. rewrite E'. cbv beta iota.
  pose proof (mes_skip q t C) as MS.
  destruct t as [sp tk]. destruct tk; try reflexivity.
  rewrite skip_ext. apply IH; lia.
Qed.
Lemma mes_le p : mes p < S (S (length (p_toks p))).
Proof. unfold mes. destruct (p_token p); lia. Qed.
Lemma process_directives_call x p vs tags :
  rsimG (ext x) (process_directives (S (S (length (p_toks p)))) p vs tags)
                (process_directives (S (S (length (p_toks p ++ x)))) (ext x p) vs tags).
Proof. pose proof (mes_le p). apply process_directives_sim; [assumption|]. rewrite app_length. lia. Qed.
Lemma skip_document_ends_call x p :
  rsimG (ext x) (skip_document_ends (S (S (length (p_toks p)))) p)
                (skip_document_ends (S (S (length (p_toks p ++ x)))) (ext x p)).
Proof. pose proof (mes_le p). apply skip_document_ends_sim; [assumption|]. rewrite app_length. lia. Qed.

Lemma explicit_document_start_sim x p : rsimG (pe x) (explicit_document_start p) (explicit_document_start (ext x p)).
Proof.
  unfold explicit_document_start. apply (rsimG_bind (ext x)); [apply process_directives_call|]. intros q.
  apply (peek_step x). intros [sp k] q2. destruct k; reflexivity.
Qed.
Lemma document_start_sim x p i : rsimG (pe x) (document_start p i) (document_start (ext x p) i).
Proof.
  rewrite !document_start_if. apply (rsimG_bind (ext x)); [apply skip_document_ends_call|]. intros q.
  apply (peek_step x). intros [sp k] q2. destruct (tis TStreamEnd k); [reflexivity|].
  destruct (negb i || tin _ k); [apply explicit_document_start_sim|].
  apply (rsimG_bind (ext x)); [apply process_directives_call|]. intros q3. reflexivity.
Qed.
Lemma document_content_sim x p : rsimG (pe x) (document_content p) (document_content (ext x p)).
Proof.
  rewrite !document_content_if. apply (peek_step x). intros t q. destruct (tin _ (snd t)); [|apply (parse_node_sim x)].
  apply (pop_step x). intros q2. reflexivity.
Qed.
Lemma document_end_sim x p : rsimG (pe x) (document_end p) (document_end (ext x p)).
Proof.
  rewrite !document_end_if. apply (peek_step x). intros [sp k] q. cbv zeta. destruct (tis TDocumentEnd k).
  - rewrite skip_ext, p_keep_tags_ext. destruct (p_keep_tags (skip q)); reflexivity.
  - rewrite p_keep_tags_ext.
    destruct (p_keep_tags q); apply (peek_step x); intros t2 q2; destruct (tin _ (snd t2)); reflexivity.
Qed.
Lemma block_mapping_key_sim x p b : rsimG (pe x) (block_mapping_key p b) (block_mapping_key (ext x p) b).
Proof.
  rewrite !block_mapping_key_if. apply (rsimG_bind (ext x)); [apply first_skip_sim|]. intros q.
  apply (peek_step x). intros [sp k] q2. destruct (tis TKey k); [apply (node_or_empty_sim x)|].
  destruct (tis TValue k); [reflexivity|]. destruct (tis TBlockEnd k); [|reflexivity].
  apply (pop_step x). intros q3. reflexivity.
Qed.
Lemma block_mapping_value_sim x p : rsimG (pe x) (block_mapping_value p) (block_mapping_value (ext x p)).
Proof.
  rewrite !block_mapping_value_if. apply (peek_step x). intros t q.
  destruct (tis TValue (snd t)); [apply (node_or_empty_sim x)|reflexivity].
Qed.
Lemma flow_mapping_key_sim x p b : rsimG (pe x) (flow_mapping_key p b) (flow_mapping_key (ext x p) b).
Proof.
  rewrite !flow_mapping_key_if. apply (rsimG_bind (ext x)); [apply first_skip_sim|]. intros q.
  apply (peek_step x). intros [sp k] q2. destruct (tis TFlowMappingEnd k).
  - apply (pop_step x). intros q3. reflexivity.
  - apply (rsimG_bind (ext x)).
    + destruct b; [reflexivity|]. apply (peek_step x). intros t q3. destruct (tis TFlowEntry (snd t)); reflexivity.
    + intros q3. apply (peek_step x). intros [sp2 k2] q4. destruct (tis TKey k2); [apply (node_or_empty_sim x)|].
      destruct (tis TValue k2); [reflexivity|]. destruct (tis TFlowMappingEnd k2); [|apply (parse_node_sim x)].
      apply (pop_step x). intros q5. reflexivity.
Qed.
Lemma flow_mapping_value_sim x p b : rsimG (pe x) (flow_mapping_value p b) (flow_mapping_value (ext x p) b).
Proof.
  rewrite !flow_mapping_value_if. destruct b; apply (peek_step x); intros t q; [reflexivity|].
  destruct (tis TValue (snd t)); [|reflexivity].
  apply (peek_step x). intros t2 q2. destruct (tin _ (snd t2)); [reflexivity|apply (parse_node_sim x)].
Qed.
Lemma flow_sequence_entry_sim x p b : rsimG (pe x) (flow_sequence_entry p b) (flow_sequence_entry (ext x p) b).
Proof.
  rewrite !flow_sequence_entry_if. apply (rsimG_bind (ext x)); [apply first_skip_sim|]. intros q.
  apply (peek_step x). intros [sp k] q2. destruct (tis TFlowSequenceEnd k).
  - apply (pop_step x). intros q3. reflexivity.
  - apply (rsimG_bind (ext x)).
    + destruct b; [reflexivity|]. destruct (tis TFlowEntry k); reflexivity.
    + intros q3. apply (peek_step x). intros [sp2 k2] q4. destruct (tis TFlowSequenceEnd k2).
      * apply (pop_step x). intros q5. reflexivity.
      * destruct (tis TKey k2); [reflexivity|apply (parse_node_sim x)].
Qed.
Lemma indentless_sequence_entry_sim x p :
  rsimG (pe x) (indentless_sequence_entry p) (indentless_sequence_entry (ext x p)).
Proof.
  rewrite !indentless_sequence_entry_if. apply (peek_step x). intros t q.
  destruct (tis TBlockEntry (snd t)); [apply (node_or_empty_sim x)|]. apply (pop_step x). intros q2. reflexivity.
Qed.
Lemma block_sequence_entry_sim x p b : rsimG (pe x) (block_sequence_entry p b) (block_sequence_entry (ext x p) b).
Proof.
  rewrite !block_sequence_entry_if. apply (rsimG_bind (ext x)); [apply first_skip_sim|]. intros q.
  apply (peek_step x). intros [sp k] q2. destruct (tis TBlockEnd k).
  - apply (pop_step x). intros q3. reflexivity.
  - destruct (tis TBlockEntry k); [apply (node_or_empty_sim x)|reflexivity].
Qed.
Lemma flow_sequence_entry_mapping_key_sim x p :
  rsimG (pe x) (flow_sequence_entry_mapping_key p) (flow_sequence_entry_mapping_key (ext x p)).
Proof. rewrite !flow_sequence_entry_mapping_key_if. apply (node_or_empty_sim x). Qed.
Lemma flow_sequence_entry_mapping_value_sim x p :
  rsimG (pe x) (flow_sequence_entry_mapping_value p) (flow_sequence_entry_mapping_value (ext x p)).
Proof.
  rewrite !flow_sequence_entry_mapping_value_if. apply (peek_step x). intros t q.
  destruct (tis TValue (snd t)); [|reflexivity].
  apply (peek_step x). intros t2 q2. cbv zeta. destruct (tin _ (snd t2)); [reflexivity|apply (parse_node_sim x)].
Qed.

Theorem state_machine_ext x p : rsimG (pe x) (state_machine p) (state_machine (ext x p)).
Proof.
  unfold state_machine. rewrite p_state_ext. destruct (p_state p).
  - apply stream_start_sim.
  - apply document_start_sim.
  - apply document_start_sim.
  - apply document_content_sim.
  - apply document_end_sim.
  - apply parse_node_sim.
  - apply block_sequence_entry_sim.
  - apply block_sequence_entry_sim.
  - apply indentless_sequence_entry_sim.
  - apply block_mapping_key_sim.
  - apply block_mapping_key_sim.
  - apply block_mapping_value_sim.
  - apply flow_sequence_entry_sim.
  - apply flow_sequence_entry_sim.
  - apply flow_sequence_entry_mapping_key_sim.
  - apply flow_sequence_entry_mapping_value_sim.
  - reflexivity.
  - apply flow_mapping_key_sim.
  - apply flow_mapping_key_sim.
  - apply flow_mapping_value_sim.
  - apply flow_mapping_value_sim.
  - reflexivity.
Qed.

(* what [parse_all] makes of one step of the state machine *)
Definition after_step (K : nat) (r : res ((event * span) * parser)) (se : scan_end) (acc : list (event * span)) :=
  match r with
  | Parser.Ok (ev, p') => parse_all K p' se (ev :: acc)
  | Parser.Err PErrScan =>
      (rev acc, match se with
                | SError s m => PScanErr s m | SPanic n => PPanic n | SFuel => PFuel
                | SEnded => PScanErr 0 {| m_index := 0; m_line := 0; m_col := 0 |} end)
  | Parser.Err (PErr s m) => (rev acc, PParseErr s m)
  | Parser.Panic n => (rev acc, PPanic n)
  end.
Lemma parse_all_after K p se acc :
  parse_all (S K) p se acc
  = match p_state p with SEnd => (rev acc, PDone) | _ => after_step K (state_machine p) se acc end.
Proof. cbn [parse_all]. destruct (p_state p); reflexivity. Qed.

(* the whole parser run: over a token list that broke off (its end is fuel / panic) the parser either ends in
   fuel / panic itself, or never asked for more - and then it does the same over any longer list, whatever its end *)
Theorem parse_all_ext x K : forall p se se' acc, se_bad se ->
  parse_all K p se acc = parse_all K (ext x p) se' acc \/ pend_bad (snd (parse_all K p se acc)).
Proof.
  induction K as [|K IH]; intros p se se' acc HB; [right; exact I|].
  rewrite !parse_all_after, p_state_ext.
  assert (HK : after_step K (state_machine p) se acc = after_step K (state_machine (ext x p)) se' acc
               \/ pend_bad (snd (after_step K (state_machine p) se acc))).
  { pose proof (state_machine_ext x p) as HS.
    destruct (state_machine p) as [[ev q]|[|s m]|n]; cbn [rsimG] in HS; try rewrite HS; cbn [after_step].
    - apply IH. exact HB.
    - right. cbn [snd]. destruct se; cbn in HB; try contradiction; exact I.
    - left. reflexivity.
    - left. reflexivity. }
  destruct (p_state p); try exact HK. left. reflexivity.
Qed.

(* a whole input *)
Theorem scan_str_buf_agree : forall orig cap, 8 <= cap ->
  rel_scan_directive cap -> rel_scan_tag cap -> rel_scan_anchor cap ->
  rel_scan_flow_scalar cap -> rel_scan_plain_scalar cap -> rel_scan_block_scalar cap ->
  forall F N,
  scan_agree (scan_all str_ops F N (init_sc {| si_chars := orig; si_look := 0 |}) [])
             (scan_all (buf_ops cap) F N (init_sc {| b_buf := []; b_rest := orig |}) []).
Proof.
  intros orig cap Hc H1 H2 H3 H4 H5 H6 F N. apply (scan_all_rel cap Hc H1 H2 H3 H4 H5 H6). apply SR_init.
Qed.

Corollary scan_str_buf_equal : forall orig cap, 8 <= cap ->
  rel_scan_directive cap -> rel_scan_tag cap -> rel_scan_anchor cap ->
  rel_scan_flow_scalar cap -> rel_scan_plain_scalar cap -> rel_scan_block_scalar cap ->
  forall F N,
  se_proper (snd (scan_all str_ops F N (init_sc {| si_chars := orig; si_look := 0 |}) [])) ->
  se_proper (snd (scan_all (buf_ops cap) F N (init_sc {| b_buf := []; b_rest := orig |}) [])) ->
  scan_all str_ops F N (init_sc {| si_chars := orig; si_look := 0 |}) []
  = scan_all (buf_ops cap) F N (init_sc {| b_buf := []; b_rest := orig |}) [].
Proof.
  intros orig cap Hc H1 H2 H3 H4 H5 H6 F N. apply (scan_all_agree cap Hc H1 H2 H3 H4 H5 H6). apply SR_init.
Qed.

(* the pipelines: scanner + parser *)
Definition run_of (r : list token * scan_end) (K : nat) : list (event * span) * pend :=
  parse_all K {| p_toks := fst r; p_token := None; p_states := []; p_state := SStreamStart;
                 p_anchors := []; p_anchor_id := 1%N; p_tags := []; p_keep_tags := false |} (snd r) [].
Lemma run_str_of orig :
  run_str orig = run_of (scan_all str_ops (2 * length orig + 10) (4 * (2 * length orig + 10) + 20)
                                  (init_sc {| si_chars := orig; si_look := 0 |}) [])
                        (4 * (4 * (2 * length orig + 10) + 20) + 40).
Proof. exact (DocRun.run_str_parse orig). Qed.
Lemma run_buf_of cap orig :
  run_buf cap orig = run_of (scan_all (buf_ops cap) (2 * length orig + 10) (4 * (2 * length orig + 10) + 20)
                                      (init_sc {| b_buf := []; b_rest := orig |}) [])
                            (4 * (4 * (2 * length orig + 10) + 20) + 40).
Proof. exact (DocRun.run_buf_parse cap orig). Qed.

(* both scanner runs end properly: the pipelines agree *)
Theorem run_str_buf_equal : forall orig cap, 8 <= cap ->
  rel_scan_directive cap -> rel_scan_tag cap -> rel_scan_anchor cap ->
  rel_scan_flow_scalar cap -> rel_scan_plain_scalar cap -> rel_scan_block_scalar cap ->
  let F := 2 * length orig + 10 in
  se_proper (snd (scan_all str_ops F (4 * F + 20) (init_sc {| si_chars := orig; si_look := 0 |}) [])) ->
  se_proper (snd (scan_all (buf_ops cap) F (4 * F + 20) (init_sc {| b_buf := []; b_rest := orig |}) [])) ->
  run_str orig = run_buf cap orig.
Proof.
  intros orig cap Hc H1 H2 H3 H4 H5 H6 F P1 P2. subst F. rewrite run_str_of, run_buf_of.
  f_equal. exact (scan_str_buf_equal orig cap Hc H1 H2 H3 H4 H5 H6 _ _ P1 P2).
Qed.

(* in general: the pipelines agree on the events and on the end, unless one of them ends in fuel / panic *)
Theorem run_str_buf_agree : forall orig cap, 8 <= cap ->
  rel_scan_directive cap -> rel_scan_tag cap -> rel_scan_anchor cap ->
  rel_scan_flow_scalar cap -> rel_scan_plain_scalar cap -> rel_scan_block_scalar cap ->
  run_str orig = run_buf cap orig \/ pend_bad (snd (run_str orig)) \/ pend_bad (snd (run_buf cap orig)).
Proof.
  intros orig cap Hc H1 H2 H3 H4 H5 H6. rewrite run_str_of, run_buf_of.
  set (F := 2 * length orig + 10). set (K0 := 4 * F + 20). set (K := 4 * K0 + 40).
  pose proof (scan_str_buf_agree orig cap Hc H1 H2 H3 H4 H5 H6 F K0) as HA.
  match type of HA with scan_agree ?a ?b => change (run_of a K = run_of b K \/ pend_bad (snd (run_of a K))
                                                   \/ pend_bad (snd (run_of b K))); generalize dependent a;
                                            generalize dependent b end.
  intros [T2 e2] [T1 e1] HA. unfold run_of. cbn [fst snd].
  destruct HA as [E|[[B [x X]]|[B [x X]]]]; cbn [fst snd] in *.
  - inversion E; subst. left. reflexivity.
  - subst T2.
    match goal with |- parse_all _ ?p _ _ = _ \/ _ => destruct (parse_all_ext x K p e1 e2 [] B) as [E|P] end;
      [left; exact E|right; left; exact P].
  - subst T1.
    match goal with |- _ = parse_all _ ?p _ _ \/ _ => destruct (parse_all_ext x K p e2 e1 [] B) as [E|P] end;
      [left; symmetry; exact E|right; right; exact P].
Qed.

(* the buffered pipeline never panics (ScanSafeTop.v): its only improper end is running out of fuel *)
Corollary run_str_buf_agree_safe : forall orig cap, 8 <= cap ->
  rel_scan_directive cap -> rel_scan_tag cap -> rel_scan_anchor cap ->
  rel_scan_flow_scalar cap -> rel_scan_plain_scalar cap -> rel_scan_block_scalar cap ->
  run_str orig = run_buf cap orig \/ pend_bad (snd (run_str orig)) \/ snd (run_buf cap orig) = PFuel.
Proof.
  intros orig cap Hc H1 H2 H3 H4 H5 H6.
  destruct (run_str_buf_agree orig cap Hc H1 H2 H3 H4 H5 H6) as [E|[B|B]]; [left; exact E|right; left; exact B|].
  right. right. pose proof (ScanSafeTop.pipeline_never_panics_buffered cap Hc orig) as NP.
  destruct (snd (run_buf cap orig)); cbn in B; try contradiction; [|reflexivity].
  destruct (NP site). reflexivity.
Qed.

Print Assumptions scan_all_rel.
Print Assumptions scan_str_buf_agree.
Print Assumptions scan_str_buf_equal.
Print Assumptions state_machine_ext.
Print Assumptions parse_all_ext.
Print Assumptions run_str_buf_equal.
Print Assumptions run_str_buf_agree.
Print Assumptions run_str_buf_agree_safe.
