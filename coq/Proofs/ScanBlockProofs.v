(* C03, scanner half, BLOCK structure: the scanner model (Model/SFetch.v over the string input) run on the text of a nested
   block collection of one-word plain scalars (Spec/BlockText.v: block sequences and mappings, compact / below / indentless
   placement) delivers exactly the tokens of the layout tree the text denotes; composed with the parser theorem: text -> events.
   Method as in ScanFlowProofs.v (symbolic execution by [cbn] on states in a normal form, one lemma per kind of token), plus:
   the indentation stack (roll_indent / unroll_indent / roll_one_col_indent / unroll_non_block_indents) as pure functions on
   (indent, indents), the simple key of block context (required keys, staleness at the line break), and the token queue
   being handed out between the fetches ([delivers]). *)
From Coq Require Import List NArith ZArith Bool Arith Lia.
Import ListNotations.
Require Import Parser SBase SPrim SDir SScalar SFetch Pipe Drivers TokenGrammar FlowText BlockText ScanFlowProofs ScanSimpl ListKit.
Open Scope N_scope.
Open Scope mon_scope.

#[local] Arguments N.ltb : simpl nomatch.
#[local] Arguments N.leb : simpl nomatch.
#[local] Arguments Z.add : simpl never.
#[local] Arguments plain_chunk : simpl never.
#[local] Arguments plain_blanks : simpl never.
#[local] Arguments fnt_rest : simpl never.
#[local] Arguments skip_ws_to_eol : simpl never.
#[local] Arguments insert_token : simpl never.
#[local] Arguments need_comp : simpl never.
#[local] Arguments unroll_indent : simpl never.
#[local] Arguments roll_indent : simpl never.
#[local] Arguments roll_one_col_indent : simpl never.
#[local] Arguments unroll_non_block_indents : simpl never.

(* states in normal form: block context (flow level 0, one simple key) *)
Definition mkb (chars : list chr) (look : nat) (mk : marker) (toks : list token) (adj : N) (ska : bool)
   (k : simple_key) (ind : Z) (inds : list indent_rec) (tp : N) (ta lws : bool) : sc strin :=
  {| sc_in := {| si_chars := chars; si_look := look |}; sc_mark := mk; sc_tokens := toks;
     sc_stream_start := true; sc_stream_end := false; sc_adjacent := adj; sc_ska := ska; sc_sks := [k];
     sc_indent := ind; sc_indents := inds; sc_flow_level := 0; sc_tokens_parsed := tp;
     sc_token_available := ta; sc_lws := lws; sc_ifms := [] |}.
Definition mkm (i ln c : N) : marker := {| m_index := i; m_line := ln; m_col := c |}.

Definition be_tok (mk : marker) : token := (span_empty mk, TBlockEnd).
Definition key_tok (mk : marker) : token := (span_empty mk, TKey).
Definition unposs (k : simple_key) : simple_key :=
  {| sk_possible := false; sk_required := sk_required k; sk_token_number := sk_token_number k; sk_mark := sk_mark k |}.
Definition newkey (rq : bool) (tn : N) (mk : marker) : simple_key :=
  {| sk_possible := true; sk_required := rq; sk_token_number := tn; sk_mark := mk |}.
Definition stale_k (k : simple_key) (mk : marker) : bool :=
  sk_possible k && ((m_line (sk_mark k) <? m_line mk) || (m_index (sk_mark k) + SIMPLE_KEY_MAX <? m_index mk)).
Definition staled (k : simple_key) (mk : marker) : simple_key := if stale_k k mk then unposs k else k.
(* records of the indentation stack: a block collection (closed by BlockEnd) / the one-column raise behind "-" NL and "key:" *)
Definition lvl (ind : Z) : indent_rec := {| in_indent := ind; in_needs_block_end := true |}.
Definition nbl (c : Z) : indent_rec := {| in_indent := c; in_needs_block_end := false |}.

Ltac nm := unfold adv, nlm; cbn [m_index m_line m_col].
Tactic Notation "erw_b" uconstr(E) :=
  let H := fresh "E" in epose proof E as H; unfold mkb, mkm, be_tok, key_tok, newkey, lvl, nbl, staled, unposs in H; unfold unposs; erewrite H; clear H.
Ltac rw_b E := let H := fresh "E" in pose proof E as H; unfold mkb, mkm, be_tok, key_tok, newkey, lvl, nbl, staled, unposs in H; unfold unposs; rewrite H; clear H.

(* blanks and the line break in front of a token *)
Lemma skip_spaces_b k : forall F cs l i ln c0 q adj ska key ind inds tp ta lws x,
  (k < F)%nat -> (x =? 32) = false -> (x =? 9) = false -> (x =? 10) = false -> (x =? 13) = false -> (x =? 35) = false ->
  skip_to_next_token str_ops F (mkb (repeat 32 k ++ x :: cs) l (mkm i ln c0) q adj ska key ind inds tp ta lws)
  = Ok (tt, mkb (x :: cs) (Nat.max l 1) (mkm (i + N.of_nat k) ln (c0 + N.of_nat k)) q adj ska key ind inds tp ta lws).
Proof.
  induction k as [|k IH]; intros F cs l i ln c0 q adj ska key ind inds tp ta lws x HF H32 H9 H10 H13 H35;
    (destruct F as [|F]; [lia|]).
  - unfold skip_to_next_token, mkb, mkm. ev. rewrite !N.add_0_r. reflexivity.
  - unfold skip_to_next_token. fold (skip_to_next_token str_ops F). unfold mkb, mkm. ev.
    change (skip_to_next_token str_ops F (mkb (repeat 32 k ++ x :: cs) (Nat.max l 1) (mkm (i + 1) ln (c0 + 1)) q adj ska key ind inds tp ta lws)
            = Ok (tt, mkb (x :: cs) (Nat.max l 1) (mkm (i + N.of_nat (S k)) ln (c0 + N.of_nat (S k))) q adj ska key ind inds tp ta lws)).
    rewrite IH by (try assumption; lia).
    rewrite max_1_1. do 3 f_equal. unfold mkm. f_equal; lia.
Qed.

Definition first_ok (x : N) : Prop :=
  (x =? 32) = false /\ (x =? 9) = false /\ (x =? 10) = false /\ (x =? 13) = false /\ (x =? 35) = false.

(* a line break and the indentation of the next line (block context: a simple key may start there) *)
Lemma skip_gap c F cs l i ln c0 q adj ska key ind inds tp ta lws x :
  (c + 1 < F)%nat -> first_ok x ->
  skip_to_next_token str_ops F (mkb (10 :: repeat 32 c ++ x :: cs) l (mkm i ln c0) q adj ska key ind inds tp ta lws)
  = Ok (tt, mkb (x :: cs) (Nat.max l 2) (mkm (i + 1 + N.of_nat c) (ln + 1) (N.of_nat c)) q adj true key ind inds tp ta true).
Proof.
  intros HF (H32 & H9 & H10 & H13 & H35). destruct F as [|F]; [lia|].
  unfold skip_to_next_token. fold (skip_to_next_token str_ops F). unfold mkb, mkm. ev.
  unfold skip_linebreak, next_2_are, assert_buflen. cbn. rewrite ltb_max2. cbn. unfold nlm. cbn [m_index m_line m_col].
  rw_b (skip_spaces_b c F cs (Nat.max (Nat.max l 1) 2) (i + 1) (ln + 1) 0 q adj true key ind inds tp ta true x ltac:(lia) H32 H9 H10 H13 H35).
  rewrite N.add_0_l. replace (Nat.max (Nat.max (Nat.max l 1) 2) 1) with (Nat.max l 2) by lia. reflexivity.
Qed.

(* nothing to skip *)
Lemma skip_none F cs l mk q adj ska key ind inds tp ta lws x :
  (1 <= F)%nat -> first_ok x ->
  skip_to_next_token str_ops F (mkb (x :: cs) l mk q adj ska key ind inds tp ta lws)
  = Ok (tt, mkb (x :: cs) (Nat.max l 1) mk q adj ska key ind inds tp ta lws).
Proof.
  intros HF (H32 & H9 & H10 & H13 & H35). destruct F as [|F]; [lia|].
  unfold skip_to_next_token, mkb. ev. reflexivity.
Qed.
Lemma skip_eof F l mk q adj ska key ind inds tp ta lws :
  (1 <= F)%nat ->
  skip_to_next_token str_ops F (mkb [] l mk q adj ska key ind inds tp ta lws)
  = Ok (tt, mkb [] (Nat.max l 1) mk q adj ska key ind inds tp ta lws).
Proof. intros HF. destruct F as [|F]; [lia|]. reflexivity. Qed.

(* the simple key of block context *)

Lemma stale_b cs l mk q adj ska k ind inds tp ta lws :
  (stale_k k mk && sk_required k) = false ->
  stale_simple_keys (mkb cs l mk q adj ska k ind inds tp ta lws)
  = Ok (tt, mkb cs l mk q adj ska (if stale_k k mk then unposs k else k) ind inds tp ta lws).
Proof.
  intros H. unfold stale_simple_keys, mkb. cbn. rewrite andb_true_r. fold (stale_k k mk). rewrite H. cbn. reflexivity.
Qed.

Lemma stale_k_unposs k mk : stale_k (unposs k) mk = false.
Proof. reflexivity. Qed.
Lemma stale_k_not_possible k mk : sk_possible k = false -> stale_k k mk = false.
Proof. unfold stale_k. intros ->. reflexivity. Qed.
Lemma staled_not_possible k mk : sk_possible k = false -> staled k mk = k.
Proof. intros H. unfold staled. rewrite (stale_k_not_possible k mk H). reflexivity. Qed.

(* need_comp (ScanFlowProofs): does fetch_more_tokens have to fetch? *)
Lemma need_empty_b cs l mk adj ska k ind inds tp ta lws :
  need_comp (mkb cs l mk [] adj ska k ind inds tp ta lws) = Ok (true, mkb cs l mk [] adj ska k ind inds tp ta lws).
Proof. reflexivity. Qed.
Lemma need_b cs l mk t q adj ska k ind inds tp ta lws :
  (stale_k k mk && sk_required k) = false ->
  need_comp (mkb cs l mk (t :: q) adj ska k ind inds tp ta lws)
  = let k' := if stale_k k mk then unposs k else k in
    Ok (sk_possible k' && (sk_token_number k' =? tp) || false, mkb cs l mk (t :: q) adj ska k' ind inds tp ta lws).
Proof.
  intros H. unfold need_comp. unfold mkb at 1. cbn.
  rw_b (stale_b cs l mk (t :: q) adj ska k ind inds tp ta lws H). cbn. reflexivity.
Qed.

(* the indentation stack *)
Fixpoint unroll_pure (fuel : nat) (col ind : Z) (inds : list indent_rec) : option (nat * Z * list indent_rec) :=
  match fuel with
  | O => None
  | S fuel =>
    if (col <? ind)%Z then
      match inds with
      | [] => None
      | i :: r => match unroll_pure fuel col (in_indent i) r with
                  | Some (n, ind', inds') => Some ((if in_needs_block_end i then S n else n), ind', inds')
                  | None => None
                  end
      end
    else Some (O, ind, inds)
  end.

Lemma repeat_snoc {A} (x : A) n : repeat x n ++ [x] = x :: repeat x n.
Proof. induction n as [|n IH]; cbn; [reflexivity|]. rewrite IH. reflexivity. Qed.

Lemma unroll_go_b fuel : forall col cs l mk q adj ska k ind inds tp ta lws n ind' inds',
  unroll_pure fuel col ind inds = Some (n, ind', inds') ->
  unroll_indent_go fuel col (mkb cs l mk q adj ska k ind inds tp ta lws)
  = Ok (tt, mkb cs l mk (q ++ repeat (be_tok mk) n) adj ska k ind' inds' tp ta lws).
Proof.
  induction fuel as [|fuel IH]; intros col cs l mk q adj ska k ind inds tp ta lws n ind' inds' H; [discriminate|].
  cbn [unroll_pure] in H. unfold unroll_indent_go. fold (@unroll_indent_go strin fuel). unfold mkb at 1. cbn.
  destruct (col <? ind)%Z.
  - destruct inds as [|i r]; [discriminate|].
    destruct (unroll_pure fuel col (in_indent i) r) as [[[n1 ind1] inds1]|] eqn:E; [|discriminate].
    injection H as <- <- <-. cbn. destruct (in_needs_block_end i); cbn.
    + rw_b (IH col cs l mk (q ++ [be_tok mk]) adj ska k (in_indent i) r tp ta lws n1 ind1 inds1 E).
      rewrite <- app_assoc. reflexivity.
    + rw_b (IH col cs l mk q adj ska k (in_indent i) r tp ta lws n1 ind1 inds1 E). reflexivity.
  - injection H as <- <- <-. cbn. rewrite app_nil_r. reflexivity.
Qed.

Lemma unroll_b col cs l mk q adj ska k ind inds tp ta lws n ind' inds' :
  unroll_pure (S (length inds)) col ind inds = Some (n, ind', inds') ->
  unroll_indent col (mkb cs l mk q adj ska k ind inds tp ta lws)
  = Ok (tt, mkb cs l mk (q ++ repeat (be_tok mk) n) adj ska k ind' inds' tp ta lws).
Proof.
  intros H. unfold unroll_indent. unfold mkb at 1. cbn.
  exact (unroll_go_b (S (length inds)) col cs l mk q adj ska k ind inds tp ta lws n ind' inds' H).
Qed.

(* the stack of open block collections (columns, innermost first) *)
Fixpoint stk (cols : list N) : Z * list indent_rec :=
  match cols with
  | [] => ((-1)%Z, [])
  | c :: r => (Z.of_N c, {| in_indent := fst (stk r); in_needs_block_end := true |} :: snd (stk r))
  end.
Lemma stk_len cols : length (snd (stk cols)) = length cols.
Proof. induction cols as [|c r IH]; cbn; [reflexivity|]. rewrite IH. reflexivity. Qed.

(* every column of [ext] is right of col, the rest is not: unrolling to col closes exactly ext *)
Definition base_le (base : list N) (col : Z) : Prop := match base with [] => (-1 <= col)%Z | b :: _ => (Z.of_N b <= col)%Z end.
Lemma unroll_stk ext : forall base col fuel,
  Forall (fun e => (col < Z.of_N e)%Z) ext -> base_le base col -> (length ext < fuel)%nat ->
  unroll_pure fuel col (fst (stk (ext ++ base))) (snd (stk (ext ++ base))) = Some (length ext, fst (stk base), snd (stk base)).
Proof.
  induction ext as [|e ext IH]; intros base col fuel He Hb Hf; (destruct fuel as [|fuel]; [cbn in Hf; lia|]).
  - cbn [app length unroll_pure]. replace (col <? fst (stk base))%Z with false; [reflexivity|].
    symmetry. apply Z.ltb_ge. destruct base as [|b r]; cbn in *; lia.
  - inversion He as [|? ? He1 He2]; subst. cbn [app stk fst snd length unroll_pure in_indent in_needs_block_end].
    replace (col <? Z.of_N e)%Z with true by (symmetry; apply Z.ltb_lt; exact He1).
    rewrite (IH base col fuel He2 Hb ltac:(cbn in Hf; lia)). reflexivity.
Qed.

(* roll_indent: a collection starts at a column right of the current indent / goes on at the current indent *)
Definition nb_top (inds : list indent_rec) : bool :=
  match inds with i :: _ => negb (in_needs_block_end i) | [] => false end.

Lemma nest_ok (inds : list indent_rec) : (length inds < 255)%nat -> (BLOCK_NESTING_MAX <=? N.of_nat (length inds)) = false.
Proof. intros H. apply N.leb_gt. unfold BLOCK_NESTING_MAX. lia. Qed.

Lemma roll_push col tk m cs l mk q adj ska k ind inds tp ta lws :
  nb_top inds = false -> (ind < Z.of_N col)%Z -> (length inds < 255)%nat ->
  roll_indent col None tk m (mkb cs l mk q adj ska k ind inds tp ta lws)
  = Ok (tt, mkb cs l mk (q ++ [(span_empty m, tk)]) adj ska k (Z.of_N col) (lvl ind :: inds) tp ta lws).
Proof.
  intros Hnb Hlt Hlen. unfold roll_indent, mkb. cbn.
  assert (E1 : (ind <? Z.of_N col)%Z = true) by (apply Z.ltb_lt; exact Hlt).
  assert (E2 : (ind <=? Z.of_N col)%Z = true) by (apply Z.leb_le; lia).
  rewrite E2. destruct inds as [|[ci [|]] r]; try discriminate; cbn.
  - rewrite E1. cbn. reflexivity.
  - pose proof (nest_ok _ Hlen) as E4. cbn [length N.of_nat] in E4. rewrite E1, E4. cbn. reflexivity.
Qed.

Lemma roll_same col number tk m cs l mk q adj ska k inds tp ta lws :
  nb_top inds = false ->
  roll_indent col number tk m (mkb cs l mk q adj ska k (Z.of_N col) inds tp ta lws)
  = Ok (tt, mkb cs l mk q adj ska k (Z.of_N col) inds tp ta lws).
Proof.
  intros Hnb. unfold roll_indent, mkb. cbn. rewrite Z.leb_refl.
  destruct inds as [|[ci [|]] r]; try discriminate; cbn; rewrite Z.ltb_irrefl; cbn; reflexivity.
Qed.

(* behind "-" NL / "key:" NL the indent was raised by one column without a block end: the collection below replaces it *)
Lemma roll_push_nb col tk m cs l mk q adj ska k ind c0 r tp ta lws :
  (ind <= Z.of_N col)%Z -> (c0 < Z.of_N col)%Z -> (length r < 255)%nat ->
  roll_indent col None tk m (mkb cs l mk q adj ska k ind ({| in_indent := c0; in_needs_block_end := false |} :: r) tp ta lws)
  = Ok (tt, mkb cs l mk (q ++ [(span_empty m, tk)]) adj ska k (Z.of_N col) (lvl c0 :: r) tp ta lws).
Proof.
  intros Hle Hlt Hlen. unfold roll_indent, mkb. cbn.
  assert (E1 : (c0 <? Z.of_N col)%Z = true) by (apply Z.ltb_lt; exact Hlt).
  assert (E2 : (ind <=? Z.of_N col)%Z = true) by (apply Z.leb_le; lia).
  rewrite E2. cbn. rewrite E1, (nest_ok r Hlen). cbn. reflexivity.
Qed.

(* the same with a token inserted in front of the pending key (fetch_value) *)
Lemma roll_push_ins col tk m cs l mk q0 r0 adj ska k ind inds tp ta lws :
  nb_top inds = false -> (ind < Z.of_N col)%Z -> (length inds < 255)%nat ->
  roll_indent col (Some (tp + N.of_nat (length q0))) tk m (mkb cs l mk (q0 ++ r0) adj ska k ind inds tp ta lws)
  = Ok (tt, mkb cs l mk (q0 ++ (span_empty m, tk) :: r0) adj ska k (Z.of_N col) (lvl ind :: inds) tp ta lws).
Proof.
  intros Hnb Hlt Hlen. unfold roll_indent, mkb. cbn.
  assert (E1 : (ind <? Z.of_N col)%Z = true) by (apply Z.ltb_lt; exact Hlt).
  assert (E2 : (ind <=? Z.of_N col)%Z = true) by (apply Z.leb_le; lia).
  assert (E3 : (tp + N.of_nat (length q0) <? tp) = false) by (apply N.ltb_ge; lia).
  rewrite E2. destruct inds as [|[ci [|]] r]; try discriminate; cbn.
  - rewrite E1. cbn. rewrite E3. cbn. rewrite ?N.ltb_irrefl. cbn. erewrite insert_token_app by reflexivity. reflexivity.
  - pose proof (nest_ok _ Hlen) as E4. cbn [length N.of_nat] in E4. rewrite E1, E4. cbn. rewrite E3. cbn.
    rewrite ?N.ltb_irrefl. cbn. erewrite insert_token_app by reflexivity. reflexivity.
Qed.

Lemma roll_one_b cs l mk q adj ska k ind i r tp ta lws :
  in_needs_block_end i = true ->
  roll_one_col_indent (mkb cs l mk q adj ska k ind (i :: r) tp ta lws)
  = Ok (tt, mkb cs l mk q adj ska k (ind + 1)%Z ({| in_indent := ind; in_needs_block_end := false |} :: i :: r) tp ta lws).
Proof. intros H. unfold roll_one_col_indent, mkb. cbn. rewrite H. reflexivity. Qed.

Lemma unroll_nb_pop cs l mk q adj ska k ind c0 i r tp ta lws :
  in_needs_block_end i = true ->
  unroll_non_block_indents (mkb cs l mk q adj ska k ind ({| in_indent := c0; in_needs_block_end := false |} :: i :: r) tp ta lws)
  = Ok (tt, mkb cs l mk q adj ska k c0 (i :: r) tp ta lws).
Proof. intros H. unfold unroll_non_block_indents, mkb. cbn. rewrite H. reflexivity. Qed.
Lemma unroll_nb_none cs l mk q adj ska k ind inds tp ta lws :
  nb_top inds = false ->
  unroll_non_block_indents (mkb cs l mk q adj ska k ind inds tp ta lws)
  = Ok (tt, mkb cs l mk q adj ska k ind inds tp ta lws).
Proof.
  intros H. unfold unroll_non_block_indents, mkb. cbn. destruct inds as [|[ci [|]] r]; try discriminate; cbn; reflexivity.
Qed.

(* words in block context *)
(* what ends a word: the end of the input, the line feed, or ':' in front of a blank or a break *)
Definition stopz (rest : list N) : Prop :=
  rest = [] \/ (exists r, rest = 10 :: r) \/ (exists y r, rest = 58 :: y :: r /\ is_blank_or_breakz y = true).

Lemma chunk_word_b w : forall fuel j acc l i ln c0 q adj ska k ind inds tp ta rest,
  forallb wch w = true -> stopz rest -> (2 * length w + 2 <= fuel)%nat ->
  exists l', plain_chunk str_ops fuel j acc (mkb (w ++ rest) l (mkm i ln c0) q adj ska k ind inds tp ta false)
  = Ok (rev w ++ acc, mkb rest l' (mkm (i + N.of_nat (length w)) ln (c0 + N.of_nat (length w))) q adj ska k ind inds tp ta false).
Proof.
  induction w as [|c w IH]; intros fuel j acc l i ln c0 q adj ska k ind inds tp ta rest Hw Hx Hf.
  - assert (Hstop : forall fuel' j' l', (Nat.leb 127 j' = false) ->
              plain_chunk str_ops (S fuel') j' acc (mkb rest l' (mkm i ln c0) q adj ska k ind inds tp ta false)
              = Ok (acc, mkb rest l' (mkm i ln c0) q adj ska k ind inds tp ta false)).
    { intros fuel' j' l' Hj. rewrite plain_chunk_S. cbn [bufmaxlen str_ops Nat.sub]. rewrite Hj. unfold mkb.
      destruct Hx as [-> | [(r & ->) | (y & r & -> & Hy)]]; cbn; rewrite ?Hy; cbn; reflexivity. }
    cbn [app length rev N.of_nat]. rewrite !N.add_0_r.
    destruct fuel as [|[|fuel]]; [cbn in Hf; lia|cbn in Hf; lia|].
    destruct (Nat.leb 127 j) eqn:Hj.
    + rewrite plain_chunk_S. cbn [bufmaxlen str_ops Nat.sub]. rewrite Hj. unfold mkb at 1. unfold mkm. cbn.
      eexists. rw_b (Hstop fuel 0%nat (Nat.max l 128) eq_refl). reflexivity.
    + eexists. apply Hstop. exact Hj.
  - cbn [forallb] in Hw. apply andb_prop in Hw as [Hc Hw].
    destruct (wch_facts c Hc) as (Hb & Hfw & H58 & _).
    assert (Hstep : forall fuel' j' l', (Nat.leb 127 j' = false) ->
              plain_chunk str_ops (S fuel') j' acc (mkb (c :: w ++ rest) l' (mkm i ln c0) q adj ska k ind inds tp ta false)
              = plain_chunk str_ops fuel' (S j') (c :: acc) (mkb (w ++ rest) l' (mkm (i + 1) ln (c0 + 1)) q adj ska k ind inds tp ta false)).
    { intros fuel' j' l' Hj. rewrite plain_chunk_S. cbn [bufmaxlen str_ops Nat.sub]. rewrite Hj. unfold mkb, mkm.
      cbn. rewrite Hb. cbn. rewrite H58. cbn. reflexivity. }
    cbn [length] in Hf. cbn [app].
    assert (Hgoal : forall l1 fuel1 j1, (2 * length w + 2 <= fuel1)%nat ->
              exists l', plain_chunk str_ops fuel1 j1 (c :: acc) (mkb (w ++ rest) l1 (mkm (i + 1) ln (c0 + 1)) q adj ska k ind inds tp ta false) =
              Ok (rev (c :: w) ++ acc, mkb rest l' (mkm (i + N.of_nat (length (c :: w))) ln (c0 + N.of_nat (length (c :: w)))) q adj ska k ind inds tp ta false)).
    { intros l1 fuel1 j1 Hf1'. destruct (IH fuel1 j1 (c :: acc) l1 (i + 1) ln (c0 + 1) q adj ska k ind inds tp ta rest Hw Hx Hf1') as (l' & E).
      exists l'. rewrite E. cbn [rev length]. rewrite <- app_assoc. cbn [app].
      replace (i + 1 + N.of_nat (length w)) with (i + N.of_nat (S (length w))) by lia.
      replace (c0 + 1 + N.of_nat (length w)) with (c0 + N.of_nat (S (length w))) by lia. reflexivity. }
    destruct fuel as [|[|fuel]]; [lia|lia|].
    destruct (Nat.leb 127 j) eqn:Hj.
    + rewrite plain_chunk_S. cbn [bufmaxlen str_ops Nat.sub]. rewrite Hj. unfold mkb at 1. unfold mkm. cbn.
      rw_b (Hstep fuel 0%nat (Nat.max l 128) eq_refl). apply Hgoal. lia.
    + rewrite (Hstep (S fuel) j l Hj). apply Hgoal. lia.
Qed.

(* the first character of a line (behind its indentation), or the end of the input *)
Definition line_first (tl : list N) : Prop :=
  match tl with [] => True | x :: _ => is_blank x = false /\ is_break x = false end.

Lemma plain_blanks_S fuel F indent start lb tb ws :
  plain_blanks str_ops F (S fuel) indent start lb tb ws =
  (c <- peek str_ops ;;
    if is_blank c then
      s <- get ;;
      (if negb (sc_lws s) then skip_blank str_ops ;;; look str_ops 2 ;;; plain_blanks str_ops F fuel indent start lb tb (c :: ws)
       else if (Z.of_N (m_col (sc_mark s)) <? indent)%Z && (c =? 9) then
         skip_ws_to_eol str_ops F SkipYes ;;; b <- next_is str_ops is_breakz ;;
         if b then look str_ops 2 ;;; plain_blanks str_ops F fuel indent start lb tb ws else fail 77 start
       else skip_blank str_ops ;;; look str_ops 2 ;;; plain_blanks str_ops F fuel indent start lb tb ws)
    else if is_break c then
      s <- get ;;
      (if sc_lws s then skip_break str_ops ;;; look str_ops 2 ;;; plain_blanks str_ops F fuel indent start lb (tb + 1) ws
       else skip_break str_ops ;;; modify (set_lws true) ;;; look str_ops 2 ;;; plain_blanks str_ops F fuel indent start true tb [])
    else ret (lb, tb, ws)).
Proof. reflexivity. Qed.

(* the indentation of the next line, read by the plain-scalar scanner *)
Lemma plain_indent c : forall F fuel indent start tl l i ln c0 q adj ska k ind inds tp ta,
  (c < fuel)%nat -> line_first tl ->
  exists l',
  plain_blanks str_ops F fuel indent start true 0 [] (mkb (repeat 32 c ++ tl) l (mkm i ln c0) q adj ska k ind inds tp ta true)
  = Ok ((true, 0, []), mkb tl l' (mkm (i + N.of_nat c) ln (c0 + N.of_nat c)) q adj ska k ind inds tp ta true).
Proof.
  induction c as [|c IH]; intros F fuel indent start tl l i ln c0 q adj ska k ind inds tp ta Hf Htl;
    (destruct fuel as [|fuel]; [lia|]); rewrite plain_blanks_S.
  - cbn [repeat app N.of_nat]. rewrite !N.add_0_r. exists l. destruct tl as [|x tl].
    + reflexivity.
    + destruct Htl as [Hb Hk]. unfold mkb, mkm. cbn. rewrite Hb, Hk. reflexivity.
  - unfold mkb at 1. unfold mkm. cbn. rewrite andb_false_r. cbn. nm.
    destruct (IH F fuel indent start tl (Nat.max l 2) (i + 1) ln (c0 + 1) q adj ska k ind inds tp ta ltac:(lia) Htl) as (l' & E).
    exists l'. rw_b E. unfold mkb, mkm. cbn [N.of_nat].
    replace (i + N.pos (Pos.of_succ_nat c)) with (i + 1 + N.of_nat c) by lia.
    replace (c0 + N.pos (Pos.of_succ_nat c)) with (c0 + 1 + N.of_nat c) by lia. reflexivity.
Qed.

Lemma plain_break c F fuel indent start tl l i ln c0 q adj ska k ind inds tp ta :
  (c + 1 < fuel)%nat -> line_first tl ->
  exists l',
  plain_blanks str_ops F fuel indent start false 0 [] (mkb (10 :: repeat 32 c ++ tl) l (mkm i ln c0) q adj ska k ind inds tp ta false)
  = Ok ((true, 0, []), mkb tl l' (mkm (i + 1 + N.of_nat c) (ln + 1) (N.of_nat c)) q adj ska k ind inds tp ta true).
Proof.
  intros Hf Htl. destruct fuel as [|fuel]; [lia|]. rewrite plain_blanks_S.
  unfold mkb at 1. unfold mkm. cbn. unfold skip_break. cbn. nm.
  destruct (plain_indent c F fuel indent start tl (Nat.max l 2) (i + 1) (ln + 1) 0 q adj ska k ind inds tp ta ltac:(lia) Htl) as (l' & E).
  exists l'. rw_b E. rewrite N.add_0_l. reflexivity.
Qed.

(* a word is never a document marker: next_is_document_indicator on a word followed by ':' *)
Lemma docind_key c w rest l mk q adj ska k ind inds tp ta lws :
  forallb wch (c :: w) = true -> (4 <= l)%nat ->
  next_is_document_indicator str_ops (mkb (c :: w ++ 58 :: rest) l mk q adj ska k ind inds tp ta lws)
  = Ok (false, mkb (c :: w ++ 58 :: rest) l mk q adj ska k ind inds tp ta lws).
Proof.
  intros Hw Hl. cbn [forallb] in Hw. apply andb_prop in Hw as [Hc Hw].
  destruct (wch_facts c Hc) as (_ & _ & _ & _ & H45 & _).
  assert (Hl' : Nat.leb l 3 = false) by (apply Nat.leb_gt; lia).
  assert (Hl3 : Nat.leb l 2 = false) by (apply Nat.leb_gt; lia).
  unfold next_is_document_indicator, next_3_are, assert_buflen, mkb. cbn. rewrite Hl'. cbn.
  destruct w as [|a [|b [|d w]]]; cbn.
  - match goal with |- context [if is_blank_or_breakz ?t then _ else _] => destruct (is_blank_or_breakz t) end; cbn; [|reflexivity]. repeat (rewrite ?andb_false_r, ?Hl3, ?H45; cbn). reflexivity.
  - match goal with |- context [if is_blank_or_breakz ?t then _ else _] => destruct (is_blank_or_breakz t) end; cbn; [|reflexivity]. repeat (rewrite ?andb_false_r, ?Hl3, ?H45; cbn). reflexivity.
  - reflexivity.
  - cbn [forallb] in Hw. apply andb_prop in Hw as [_ Hw]. apply andb_prop in Hw as [_ Hw]. apply andb_prop in Hw as [Hd _].
    destruct (wch_facts d Hd) as (Hbd & _). rewrite Hbd. cbn. reflexivity.
Qed.

Lemma if_same {A} (b : bool) (a : A) : (if b then a else a) = a.
Proof. destruct b; reflexivity. Qed.

Lemma rev_word_ne (c : N) w : exists a t, rev w ++ [c] = a :: t.
Proof. destruct (rev w ++ [c]) as [|a t] eqn:E; [destruct (rev w); discriminate|eauto]. Qed.

Definition wlen (c : N) (w : list N) : N := N.of_nat (length (c :: w)).
Lemma wlen_add x c w : x + wlen c w = x + 1 + N.of_nat (length w).
Proof. unfold wlen. cbn [length]. lia. Qed.

(* a word at which the scalar ends: in front of the end of the input, or a key in front of ':' (which is no document
   marker, whatever its column) *)
Lemma scan_word_stop F c w rest l i ln c0 q adj ska k ind inds ind1 inds1 tp ta lws :
  forallb wch (c :: w) = true ->
  (rest = [] /\ (lws && (c0 =? 0)) = false) \/ (exists y r, rest = 58 :: y :: r /\ is_blank_or_breakz y = true) ->
  unroll_nb inds ind = (ind1, inds1) -> (2 * length w + 3 <= F)%nat ->
  exists l',
  scan_plain_scalar str_ops F (mkb (c :: w ++ rest) l (mkm i ln c0) q adj ska k ind inds tp ta lws)
  = Ok ((spn (mkm i ln c0) (mkm (i + wlen c w) ln (c0 + wlen c w)), TScalar Plain (c :: w)),
        mkb rest l' (mkm (i + wlen c w) ln (c0 + wlen c w)) q adj ska k ind1 inds1 tp ta false).
Proof.
  intros Hw Hrest Hnb HF. pose proof Hw as Hw0.
  cbn [forallb] in Hw. apply andb_prop in Hw as [Hc Hw].
  destruct (wch_facts c Hc) as (Hb & Hfw & H58 & H35 & H45 & _).
  destruct F as [|F]; [lia|].
  assert (Hstop : stopz rest) by (destruct Hrest as [[-> _] | H]; [left; reflexivity | right; right; exact H]).
  destruct (chunk_word_b w (S F) 0%nat [c] (Nat.max (Nat.max l 4) 128) (i + 1) ln (c0 + 1) q adj ska k ind1 inds1 tp ta rest
              Hw Hstop ltac:(lia)) as (l' & Ech).
  exists l'. rewrite !wlen_add. destruct (rev_word_ne c w) as (a & t & Ea).
  assert (Edi : (if lws && (c0 =? 0) then next_is_document_indicator str_ops else ret false)
            (mkb (c :: w ++ rest) (Nat.max l 4) (mkm i ln c0) q adj ska k ind1 inds1 tp ta lws)
          = Ok (false, mkb (c :: w ++ rest) (Nat.max l 4) (mkm i ln c0) q adj ska k ind1 inds1 tp ta lws)).
  { destruct Hrest as [[_ ->] | (y & r & -> & _)]; [reflexivity|].
    destruct (lws && (c0 =? 0)); [apply docind_key; [exact Hw0|lia]|reflexivity]. }
  unfold scan_plain_scalar, unroll_non_block_indents. unfold mkb at 1. unfold mkm. cbn. rewrite Hnb. cbn.
  rw_b Edi. cbn. rewrite H35. cbn. rewrite Hb. cbn. rewrite H58. cbn. rewrite if_same.
  destruct Hrest as [[-> _] | (y & r & -> & _)];
    (cbn; nm; unfold chr in *; rw_b Ech; cbn; rewrite Ea; cbn;
     change (rev t ++ [a]) with (rev (a :: t)); rewrite <- Ea, rev_app_distr, rev_involutive; reflexivity).
Qed.

(* a scalar at the end of its line: the scanner goes on to the first character of the next line, which is not indented
   more than the current block collection (so it does not continue the scalar) *)
Lemma scan_value_word F c w c' tl l i ln c0 q adj ska k ind inds ind1 inds1 tp ta lws :
  forallb wch (c :: w) = true -> (lws && (c0 =? 0)) = false -> unroll_nb inds ind = (ind1, inds1) ->
  line_first tl -> (Z.of_nat c' <= ind1)%Z ->
  (2 * length w + 3 <= F)%nat -> (c' + 2 <= F)%nat ->
  exists l',
  scan_plain_scalar str_ops F (mkb (c :: w ++ 10 :: repeat 32 c' ++ tl) l (mkm i ln c0) q adj ska k ind inds tp ta lws)
  = Ok ((spn (mkm i ln c0) (mkm (i + wlen c w) ln (c0 + wlen c w)), TScalar Plain (c :: w)),
        mkb tl l' (mkm (i + wlen c w + 1 + N.of_nat c') (ln + 1) (N.of_nat c')) q adj true k ind1 inds1 tp ta true).
Proof.
  intros Hw Hdi Hnb Htl Hc' HF HF2.
  cbn [forallb] in Hw. apply andb_prop in Hw as [Hc Hw].
  destruct (wch_facts c Hc) as (Hb & Hfw & H58 & H35 & H45 & _).
  destruct F as [|F]; [lia|].
  destruct (chunk_word_b w (S F) 0%nat [c] (Nat.max (Nat.max l 4) 128) (i + 1) ln (c0 + 1) q adj ska k ind1 inds1 tp ta (10 :: repeat 32 c' ++ tl)
              Hw ltac:(right; left; eexists; reflexivity) ltac:(lia)) as (l1 & Ech).
  destruct (plain_break c' (S F) (S F) (ind1 + 1)%Z (mkm i ln c0) tl (Nat.max l1 2) (i + 1 + N.of_nat (length w)) ln (c0 + 1 + N.of_nat (length w))
              q adj ska k ind1 inds1 tp ta ltac:(lia) Htl) as (l' & Ebr).
  exists l'. rewrite !wlen_add. destruct (rev_word_ne c w) as (a & t & Ea).
  assert (Hcol : (Z.of_N (N.of_nat c') <? ind1 + 1)%Z = true) by (apply Z.ltb_lt; lia).
  unfold scan_plain_scalar, unroll_non_block_indents. unfold mkb at 1. unfold mkm. cbn. rewrite Hnb. cbn.
  rewrite Hdi. cbn. rewrite H35. cbn. rewrite Hb. cbn. rewrite H58. cbn. rewrite if_same.
  cbn; nm; unfold chr in *; rw_b Ech; cbn; rw_b Ebr; cbn; rewrite Hcol; cbn; rewrite Ea; cbn;
    change (rev t ++ [a]) with (rev (a :: t)); rewrite <- Ea, rev_app_distr, rev_involutive; reflexivity.
Qed.

(* one lemma per kind of token *)
(* save_simple_key in block context: a key at the column of the current block collection is required *)
Definition req (ind : Z) (inds : list indent_rec) (col : N) : bool :=
  (ind =? Z.of_N col)%Z && match inds with i :: _ => in_needs_block_end i | [] => false end.
Definition saved (ska : bool) (k : simple_key) (ind : Z) (inds : list indent_rec) (tp : N) (q : list token) (mk : marker) : simple_key :=
  if ska then newkey (req ind inds (m_col mk)) (tp + N.of_nat (length q)) mk else k.

Lemma save_key_b cs l mk q adj ska k ind inds tp ta lws :
  ((ind =? Z.of_N (m_col mk))%Z = true -> inds <> []) ->
  save_simple_key (mkb cs l mk q adj ska k ind inds tp ta lws)
  = Ok (tt, mkb cs l mk q adj ska (saved ska k ind inds tp q mk) ind inds tp ta lws).
Proof.
  intros H. unfold save_simple_key, saved, req, mkb. destruct ska; cbn; [|reflexivity].
  destruct (ind =? Z.of_N (m_col mk))%Z eqn:E; cbn; [|reflexivity].
  destruct inds as [|i r]; [exfalso; apply H; reflexivity|]. cbn. reflexivity.
Qed.
#[local] Arguments save_simple_key : simpl never.

(* fetch_plain_scalar: the key is saved, the scalar is scanned, its token joins the queue *)
Lemma fetch_plain_b F cs l mk q adj ska k ind inds tp ta lws t cs' l' mk' ska' k' ind' inds' lws' :
  ((ind =? Z.of_N (m_col mk))%Z = true -> inds <> []) ->
  scan_plain_scalar str_ops F (mkb cs l mk q adj false (saved ska k ind inds tp q mk) ind inds tp ta lws)
  = Ok (t, mkb cs' l' mk' q adj ska' k' ind' inds' tp ta lws') ->
  fetch_plain_scalar str_ops F (mkb cs l mk q adj ska k ind inds tp ta lws)
  = Ok (tt, mkb cs' l' mk' (q ++ [t]) adj ska' k' ind' inds' tp ta lws').
Proof.
  intros Hreq E. unfold fetch_plain_scalar. cbn [bind].
  rewrite (save_key_b _ l mk q adj ska k ind inds tp ta lws Hreq). unfold disallow_simple_key. unfold mkb at 1. cbn.
  rw_b E. cbn. reflexivity.
Qed.

Lemma word_stop_step F c w rest l i ln c0 q adj ska k ind inds ind1 inds1 tp ta lws :
  forallb wch (c :: w) = true ->
  (rest = [] /\ (lws && (c0 =? 0)) = false) \/ (exists y r, rest = 58 :: y :: r /\ is_blank_or_breakz y = true) ->
  unroll_nb inds ind = (ind1, inds1) -> ((ind =? Z.of_N c0)%Z = true -> inds <> []) ->
  (2 * length w + 3 <= F)%nat ->
  exists l',
  fetch_plain_scalar str_ops F (mkb (c :: w ++ rest) l (mkm i ln c0) q adj ska k ind inds tp ta lws)
  = Ok (tt, mkb rest l' (mkm (i + wlen c w) ln (c0 + wlen c w))
              (q ++ [(spn (mkm i ln c0) (mkm (i + wlen c w) ln (c0 + wlen c w)), TScalar Plain (c :: w))]) adj false
              (saved ska k ind inds tp q (mkm i ln c0)) ind1 inds1 tp ta false).
Proof.
  intros Hw Hrest Hnb Hreq HF.
  destruct (scan_word_stop F c w rest l i ln c0 q adj false (saved ska k ind inds tp q (mkm i ln c0)) ind inds ind1 inds1 tp ta lws Hw Hrest Hnb HF)
    as (l' & E).
  exists l'. apply fetch_plain_b; [exact Hreq | exact E].
Qed.

Lemma word_key_step F c w y r l i ln c0 q adj ska k ind inds ind1 inds1 tp ta lws :
  forallb wch (c :: w) = true -> is_blank_or_breakz y = true -> unroll_nb inds ind = (ind1, inds1) ->
  ((ind =? Z.of_N c0)%Z = true -> inds <> []) ->
  (2 * length w + 3 <= F)%nat ->
  exists l',
  fetch_plain_scalar str_ops F (mkb (c :: w ++ 58 :: y :: r) l (mkm i ln c0) q adj ska k ind inds tp ta lws)
  = Ok (tt, mkb (58 :: y :: r) l' (mkm (i + wlen c w) ln (c0 + wlen c w))
              (q ++ [(spn (mkm i ln c0) (mkm (i + wlen c w) ln (c0 + wlen c w)), TScalar Plain (c :: w))]) adj false
              (saved ska k ind inds tp q (mkm i ln c0)) ind1 inds1 tp ta false).
Proof.
  intros Hw Hy. apply word_stop_step; [exact Hw | right; exists y, r; split; [reflexivity | exact Hy]].
Qed.

Lemma word_value_step F c w c' tl l i ln c0 q adj ska k ind inds ind1 inds1 tp ta lws :
  forallb wch (c :: w) = true -> (lws && (c0 =? 0)) = false -> unroll_nb inds ind = (ind1, inds1) ->
  ((ind =? Z.of_N c0)%Z = true -> inds <> []) ->
  line_first tl -> (Z.of_nat c' <= ind1)%Z ->
  (2 * length w + 3 <= F)%nat -> (c' + 2 <= F)%nat ->
  exists l',
  fetch_plain_scalar str_ops F (mkb (c :: w ++ 10 :: repeat 32 c' ++ tl) l (mkm i ln c0) q adj ska k ind inds tp ta lws)
  = Ok (tt, mkb tl l' (mkm (i + wlen c w + 1 + N.of_nat c') (ln + 1) (N.of_nat c'))
              (q ++ [(spn (mkm i ln c0) (mkm (i + wlen c w) ln (c0 + wlen c w)), TScalar Plain (c :: w))]) adj true
              (saved ska k ind inds tp q (mkm i ln c0)) ind1 inds1 tp ta true).
Proof.
  intros Hw Hdi Hnb Hreq Htl Hc' HF HF2.
  destruct (scan_value_word F c w c' tl l i ln c0 q adj false (saved ska k ind inds tp q (mkm i ln c0)) ind inds ind1 inds1 tp ta lws
              Hw Hdi Hnb Htl Hc' HF HF2) as (l' & E).
  exists l'. apply fetch_plain_b; [exact Hreq | exact E].
Qed.

(* ':' behind a key of a block mapping.  [newm]: the key opens the mapping (its column is right of the current indent);
   otherwise it is a further key of the current mapping *)

Lemma value_step_b F (newm : bool) y r l i ln c q0 kt adj ska rq ik ck ind inds tp ta lws :
  is_blank_or_breakz y = true -> (y =? 9) = false -> nb_top inds = false ->
  (if newm then (ind < Z.of_N ck)%Z /\ (length inds < 255)%nat else ind = Z.of_N ck /\ inds <> []) ->
  fetch_value str_ops F (mkb (58 :: y :: r) l (mkm i ln c) (q0 ++ [kt]) adj ska
                           (newkey rq (tp + N.of_nat (length q0)) (mkm ik ln ck)) ind inds tp ta lws)
  = Ok (tt, mkb (y :: r) (Nat.max l 1) (mkm (i + 1) ln (c + 1))
              ((q0 ++ (if newm then [(span_empty (mkm ik ln ck), TBlockMappingStart)] else []) ++ [key_tok (mkm ik ln ck); kt])
                 ++ [(span_empty (mkm i ln c), TValue)])
              adj false (unposs (newkey rq (tp + N.of_nat (length q0)) (mkm ik ln ck)))
              (Z.of_N ck + 1)%Z (nbl (Z.of_N ck) :: (if newm then lvl ind :: inds else inds)) tp ta false).
Proof.
  intros Hy H9 Hnb Hcase.
  assert (Hlt : (tp + N.of_nat (length q0) <? tp) = false) by (apply N.ltb_ge; lia).
  unfold fetch_value. unfold mkb at 1. unfold mkm, newkey. cbn. rewrite H9. cbn. rewrite Hlt. cbn.
  (erewrite insert_token_app; [| reflexivity]). cbn. nm.
  destruct newm.
  - destruct Hcase as [Hlt2 Hlen].
    rw_b (roll_push_ins ck TBlockMappingStart (mkm ik ln ck) (y :: r) (Nat.max l 1) (mkm (i + 1) ln (c + 1)) q0 [key_tok (mkm ik ln ck); kt] adj ska
            (newkey rq (tp + N.of_nat (length q0)) (mkm ik ln ck)) ind inds tp ta false Hnb Hlt2 Hlen).
    cbn. rw_b (roll_one_b (y :: r) (Nat.max l 1) (mkm (i + 1) ln (c + 1)) (q0 ++ (span_empty (mkm ik ln ck), TBlockMappingStart) :: [key_tok (mkm ik ln ck); kt]) adj ska
            (newkey rq (tp + N.of_nat (length q0)) (mkm ik ln ck)) (Z.of_N ck) (lvl ind) inds tp ta false eq_refl).
    cbn. unfold push_tok, mkb, mkm, unposs, nbl, lvl, key_tok. cbn. rewrite <- !app_assoc. reflexivity.
  - destruct Hcase as [-> Hne]. destruct inds as [|[ci [|]] rr]; try discriminate; [congruence|].
    rw_b (roll_same ck (Some (tp + N.of_nat (length q0))) TBlockMappingStart (mkm ik ln ck) (y :: r) (Nat.max l 1) (mkm (i + 1) ln (c + 1))
            (q0 ++ [key_tok (mkm ik ln ck); kt]) adj ska
            (newkey rq (tp + N.of_nat (length q0)) (mkm ik ln ck)) (lvl ci :: rr) tp ta false eq_refl).
    cbn. rw_b (roll_one_b (y :: r) (Nat.max l 1) (mkm (i + 1) ln (c + 1)) (q0 ++ [key_tok (mkm ik ln ck); kt]) adj ska
            (newkey rq (tp + N.of_nat (length q0)) (mkm ik ln ck)) (Z.of_N ck) (lvl ci) rr tp ta false eq_refl).
    cbn. unfold push_tok, mkb, mkm, unposs, nbl, lvl, key_tok. cbn. rewrite <- !app_assoc. reflexivity.
Qed.

Lemma ws_none_no F (s : sc strin) c' cs : si_chars (sc_in s) = c' :: cs -> not_ws c' -> (1 <= F)%nat ->
  skip_ws_to_eol str_ops F SkipNo s
  = Ok ((false, false), set_in {| si_chars := c' :: cs; si_look := Nat.max (si_look (sc_in s)) 1 |} s).
Proof.
  intros Hc (H32 & H9 & H35) HF. destruct F as [|F]; [lia|].
  destruct s as [[chars look] mk toks ss se adj ska sks ind inds fl tp ta lws ifms]. cbn in Hc. subst chars.
  unfold skip_ws_to_eol, in_skip_ws_to_eol. ev. rewrite ?andb_false_r. cbn. unfold adv. destruct mk as [mi ml mc]. cbn. rewrite !N.add_0_r. reflexivity.
Qed.

Definition plain_last (q : list token) : Prop :=
  match snd (last q (span_empty mk0, TStreamEnd)) with TAnchor _ | TTag _ _ => False | _ => True end.
Lemma plain_last_nil : plain_last [].
Proof. exact I. Qed.
Lemma plain_last_be mk n : plain_last (repeat (be_tok mk) n).
Proof.
  unfold plain_last. induction n as [|n IH]; [exact I|]. cbn [repeat]. destruct n as [|n]; [exact I|]. exact IH.
Qed.

Definition entry_tok (mk : marker) : token := (span_empty mk, TBlockEntry).
Definition not_req (k : simple_key) : Prop := (sk_possible k && sk_required k) = false.

(* '-' of a block sequence.  The effect of roll_indent on the stack is a hypothesis (roll_push / roll_same / roll_push_nb) *)
Section BlockEntry.
Variables (F : nat) (i ln c : N) (q q2 : list token) (ind ind2 : Z) (inds inds2 : list indent_rec).
Hypothesis Hroll : forall cs l mk adj ska k tp ta lws,
  roll_indent c None TBlockSequenceStart (mkm i ln c) (mkb cs l mk q adj ska k ind inds tp ta lws)
  = Ok (tt, mkb cs l mk q2 adj ska k ind2 inds2 tp ta lws).
Hypothesis Hq : plain_last q.

(* "- x": something follows on the line *)
Lemma entry_step_sp x r l adj k tp ta lws :
  (2 <= F)%nat -> not_ws x -> is_break x = false -> is_flow x = false -> not_req k ->
  fetch_block_entry str_ops F (mkb (45 :: 32 :: x :: r) l (mkm i ln c) q adj true k ind inds tp ta lws)
  = Ok (tt, mkb (x :: r) (Nat.max (Nat.max l 1) 2) (mkm (i + 2) ln (c + 2)) (q2 ++ [entry_tok (mkm (i + 2) ln (c + 2))]) adj true (unposs k)
              ind2 inds2 tp ta false).
Proof.
  intros HF Hx Hbr Hfl Hk. unfold not_req in Hk.
  unfold fetch_block_entry. unfold mkb at 1. unfold mkm. cbn.
  assert (Hlast : forall (A : Type) (a : span -> @M strin A) (b : @M strin A) s,
            (match last q (span_empty mk0, TStreamEnd) with (sp, TAnchor _) | (sp, TTag _ _) => a sp | _ => b end) s = b s).
  { intros A a b s. unfold plain_last in Hq. destruct (last q (span_empty mk0, TStreamEnd)) as [sp []]; cbn in Hq; try reflexivity; contradiction. }
  rewrite Hlast. cbn. nm. rw_b (Hroll (32 :: x :: r) l (mkm (i + 1) ln (c + 1)) adj true k tp ta false). cbn.
  (erewrite ws_one; [| reflexivity | exact Hx | exact HF]). cbn.
  (erewrite ws_none_no; [| reflexivity | exact Hx | lia]). cbn. rewrite Hbr, Hfl. cbn.
  unfold remove_simple_key. cbn. rewrite Hk. cbn. nm.
  unfold push_tok, mkb, mkm, entry_tok, unposs. cbn.
  replace (i + 1 + 1) with (i + 2) by lia. replace (c + 1 + 1) with (c + 2) by lia.
  replace (Nat.max (Nat.max (Nat.max (Nat.max l 1) 2) 1) 1) with (Nat.max (Nat.max l 1) 2) by lia. reflexivity.
Qed.

(* "-" at the end of its line: the indent is raised by one column (roll_one_col_indent) *)
Lemma entry_step_nl r l adj k tp ta lws i2 r2 :
  (1 <= F)%nat -> not_req k -> inds2 = i2 :: r2 -> in_needs_block_end i2 = true ->
  fetch_block_entry str_ops F (mkb (45 :: 10 :: r) l (mkm i ln c) q adj true k ind inds tp ta lws)
  = Ok (tt, mkb (10 :: r) (Nat.max (Nat.max l 1) 2) (mkm (i + 1) ln (c + 1)) (q2 ++ [entry_tok (mkm (i + 1) ln (c + 1))]) adj true (unposs k)
              (ind2 + 1)%Z (nbl ind2 :: inds2) tp ta false).
Proof.
  intros HF Hk Hi2 Hnb. unfold not_req in Hk. subst inds2.
  unfold fetch_block_entry. unfold mkb at 1. unfold mkm. cbn.
  assert (Hlast : forall (A : Type) (a : span -> @M strin A) (b : @M strin A) s,
            (match last q (span_empty mk0, TStreamEnd) with (sp, TAnchor _) | (sp, TTag _ _) => a sp | _ => b end) s = b s).
  { intros A a b s. unfold plain_last in Hq. destruct (last q (span_empty mk0, TStreamEnd)) as [sp []]; cbn in Hq; try reflexivity; contradiction. }
  rewrite Hlast. cbn. nm. rw_b (Hroll (10 :: r) l (mkm (i + 1) ln (c + 1)) adj true k tp ta false). cbn.
  (erewrite ws_none; [| reflexivity | repeat split; reflexivity | exact HF]). cbn.
  (erewrite ws_none_no; [| reflexivity | repeat split; reflexivity | lia]). cbn.
  erw_b (roll_one_b _ _ _ _ _ _ _ _ _ _ _ _ _ Hnb). cbn.
  unfold remove_simple_key. cbn. rewrite Hk. cbn. nm.
  unfold push_tok, mkb, mkm, entry_tok, unposs, nbl. cbn.
  replace (Nat.max (Nat.max (Nat.max (Nat.max l 1) 2) 1) 1) with (Nat.max (Nat.max l 1) 2) by lia. reflexivity.
Qed.
End BlockEntry.

(* fetch_next_token in block context *)
Definition fnt_tail (F : nat) : @M strin unit :=
  z <- next_is str_ops is_z ;; if z then fetch_stream_end else fnt_rest F.

Lemma fnt_b F cs0 l0 m0 q adj ska0 k ind inds tp ta lws0 cs l1 mk ska lws n ind' inds' :
  skip_to_next_token str_ops F (mkb cs0 (Nat.max l0 1) m0 q adj ska0 k ind inds tp ta lws0)
    = Ok (tt, mkb cs l1 mk q adj ska k ind inds tp ta lws) ->
  (stale_k k mk && sk_required k) = false ->
  unroll_pure (S (length inds)) (Z.of_N (m_col mk)) ind inds = Some (n, ind', inds') ->
  fetch_next_token str_ops F (mkb cs0 l0 m0 q adj ska0 k ind inds tp ta lws0)
  = fnt_tail F (mkb cs (Nat.max l1 4) mk (q ++ repeat (be_tok mk) n) adj ska (staled k mk) ind' inds' tp ta lws).
Proof.
  intros Hskip Hst Hun. rewrite fnt_unfold. unfold mkb at 1. cbn.
  unfold mkb in Hskip. rewrite Hskip. cbn.
  rw_b (stale_b cs l1 mk q adj ska k ind inds tp ta lws Hst). cbn.
  rw_b (unroll_b (Z.of_N (m_col mk)) cs l1 mk q adj ska (staled k mk) ind inds tp ta lws n ind' inds' Hun). cbn. reflexivity.
Qed.

Lemma tail_char F x cs l mk q adj ska k ind inds tp ta lws : (x =? 0) = false ->
  fnt_tail F (mkb (x :: cs) l mk q adj ska k ind inds tp ta lws) = fnt_rest F (mkb (x :: cs) l mk q adj ska k ind inds tp ta lws).
Proof. intros H. unfold fnt_tail, mkb. cbn. unfold is_z. rewrite H. reflexivity. Qed.
Lemma tail_eof F l mk q adj ska k ind inds tp ta lws :
  fnt_tail F (mkb [] l mk q adj ska k ind inds tp ta lws) = fetch_stream_end (mkb [] l mk q adj ska k ind inds tp ta lws).
Proof. reflexivity. Qed.

(* the dispatch on the first character *)
Lemma leb_look l : (4 <= l)%nat -> Nat.leb l 3 = false /\ Nat.leb l 2 = false.
Proof. intros H. split; apply Nat.leb_gt; lia. Qed.

Lemma rest_dash F y r l i ln c q adj ska k ind inds tp ta lws :
  (4 <= l)%nat -> is_blank_or_breakz y = true -> (y =? 45) = false -> (Z.of_N c <? ind)%Z = false ->
  fnt_rest F (mkb (45 :: y :: r) l (mkm i ln c) q adj ska k ind inds tp ta lws)
  = fetch_block_entry str_ops F (mkb (45 :: y :: r) l (mkm i ln c) q adj ska k ind inds tp ta lws).
Proof.
  intros Hl Hy H45 Hcol. destruct (leb_look l Hl) as [L3 L2].
  unfold fnt_rest, mkb, mkm. cbn. destruct (c =? 0); cbn.
  - unfold next_is_document_start, next_is_document_end, next_3_are, assert_buflen. cbn. rewrite L3. cbn. rewrite L2. cbn.
    rewrite H45. cbn. rewrite L3. cbn. rewrite L2. cbn. rewrite Hcol. cbn. rewrite Hy. cbn. reflexivity.
  - rewrite Hcol. cbn. rewrite Hy. cbn. reflexivity.
Qed.

Lemma rest_colon F y r l i ln c q adj ska k ind inds tp ta lws :
  is_blank_or_breakz y = true -> (c =? 0) = false -> (Z.of_N c <? ind)%Z = false ->
  fnt_rest F (mkb (58 :: y :: r) l (mkm i ln c) q adj ska k ind inds tp ta lws)
  = fetch_value str_ops F (mkb (58 :: y :: r) l (mkm i ln c) q adj ska k ind inds tp ta lws).
Proof.
  intros Hy Hc Hcol. unfold fnt_rest, mkb, mkm. cbn. rewrite Hc. cbn. rewrite Hcol. cbn. rewrite Hy. cbn. reflexivity.
Qed.

(* a word away from column 0 *)
Lemma rest_word_b F x cs l i ln c q adj ska k ind inds tp ta lws :
  wch x = true -> (c =? 0) = false -> (Z.of_N c <? ind)%Z = false ->
  fnt_rest F (mkb (x :: cs) l (mkm i ln c) q adj ska k ind inds tp ta lws)
  = fetch_plain_scalar str_ops F (mkb (x :: cs) l (mkm i ln c) q adj ska k ind inds tp ta lws).
Proof.
  intros Hx Hc Hcol.
  rewrite fnt_rest_eq. unfold FlowSkeleton.fnt_rest, mkb, mkm. cbn. rewrite Hc. cbn.
  unfold disp. cbn -[DispatchTie.dispatch_tail]. rewrite Hcol. cbn -[DispatchTie.dispatch_tail].
  rewrite DispatchTie.tbl_dispatch, (wch_plain x _ _ _ Hx). reflexivity.
Qed.

(* a key (a word in front of ':') at any column, also column 0: it is no document marker *)
Lemma rest_key F x w rest l i ln c q adj ska k ind inds tp ta lws :
  forallb wch (x :: w) = true -> (4 <= l)%nat -> (Z.of_N c <? ind)%Z = false ->
  fnt_rest F (mkb (x :: w ++ 58 :: rest) l (mkm i ln c) q adj ska k ind inds tp ta lws)
  = fetch_plain_scalar str_ops F (mkb (x :: w ++ 58 :: rest) l (mkm i ln c) q adj ska k ind inds tp ta lws).
Proof.
  intros Hw Hl Hcol. destruct (c =? 0) eqn:Hc; [|cbn [forallb] in Hw; apply andb_prop in Hw as [Hx _]; apply rest_word_b; assumption].
  destruct (leb_look l Hl) as [L3 L2].
  cbn [forallb] in Hw. apply andb_prop in Hw as [Hx Hw].
  destruct (wch_facts x Hx) as (_ & _ & _ & _ & H45 & _ & _ & _ & _ & _ & _ & _ & _ & H37 & _).
  assert (Hend : next_is_document_end str_ops (mkb (x :: w ++ 58 :: rest) l (mkm i ln c) q adj ska k ind inds tp ta lws)
                 = Ok (false, mkb (x :: w ++ 58 :: rest) l (mkm i ln c) q adj ska k ind inds tp ta lws)).
  { unfold next_is_document_end, next_3_are, assert_buflen, mkb. cbn. rewrite L3. cbn. rewrite L2. cbn.
    destruct w as [|a [|b [|d w]]]; cbn.
    - rewrite andb_false_r. reflexivity.
    - rewrite andb_false_r. reflexivity.
    - destruct ((x =? 46) && (a =? 46) && (b =? 46)); reflexivity.
    - cbn [forallb] in Hw. apply andb_prop in Hw as [_ Hw]. apply andb_prop in Hw as [_ Hw]. apply andb_prop in Hw as [Hd _].
      destruct (wch_facts d Hd) as (Hbd & _). destruct ((x =? 46) && (a =? 46) && (b =? 46)); cbn; [rewrite Hbd|]; reflexivity. }
  rewrite fnt_rest_eq. unfold FlowSkeleton.fnt_rest. unfold mkb at 1. unfold mkm at 1. cbn. rewrite Hc. cbn. rewrite H37. cbn.
  unfold next_is_document_start, next_3_are, assert_buflen. cbn. rewrite L3. cbn. rewrite L2. cbn. rewrite H45. cbn.
  unfold mkb, mkm in Hend. rewrite Hend. cbn.
  unfold disp. cbn -[DispatchTie.dispatch_tail]. rewrite Hcol. cbn -[DispatchTie.dispatch_tail].
  rewrite DispatchTie.tbl_dispatch, (wch_plain x _ _ _ Hx). reflexivity.
Qed.

(* the end of the input, at column 0 *)
Definition se_tok (mk : marker) : token := (span_empty mk, TStreamEnd).
Lemma stream_end_b l i ln q adj ska k ind inds tp ta lws n ind' inds' :
  (sk_required k && sk_possible k) = false ->
  unroll_pure (S (length inds)) (-1)%Z ind inds = Some (n, ind', inds') ->
  fetch_stream_end (mkb [] l (mkm i ln 0) q adj ska k ind inds tp ta lws)
  = Ok (tt, mkb [] l (mkm i ln 0) ((q ++ repeat (be_tok (mkm i ln 0)) n) ++ [se_tok (mkm i ln 0)]) adj false (unposs k) ind' inds' tp ta lws).
Proof.
  intros Hk Hun. unfold fetch_stream_end. unfold mkb at 1. unfold mkm. cbn. rewrite Hk. cbn.
  rw_b (unroll_b (-1)%Z [] l (mkm i ln 0) q adj ska (unposs k) ind inds tp ta lws n ind' inds' Hun). cbn.
  unfold remove_simple_key. cbn. reflexivity.
Qed.

(* handing out the queue between the fetches *)
(* next_token with an explicit budget of fetches *)
Definition popk : @M strin (option token) :=
  s <- get ;;
  match sc_tokens s with
  | [] => fail 104 (sc_mark s)
  | t :: r =>
      put (set_tp (sc_tokens_parsed s + 1) (set_ta false (set_tokens r s))) ;;;
      (match snd t with TStreamEnd => modify (set_se true) | _ => ret tt end) ;;;
      ret (Some t)
  end.
Definition ntb (F b : nat) : @M strin (option token) :=
  s <- get ;; (if sc_token_available s then ret tt else fetch_more_tokens str_ops F b) ;;; popk.
#[local] Arguments popk : simpl never.
#[local] Arguments ntb : simpl never.

Lemma nt_ntb F b (s : sc strin) : F = b -> sc_stream_end s = false -> next_token str_ops F s = ntb F b s.
Proof. intros <- H. unfold next_token, ntb, popk. cbn. rewrite H. reflexivity. Qed.

Lemma ntb_fetch F b (s s1 s2 : sc strin) :
  sc_token_available s = false -> need_comp s = Ok (true, s1) -> fetch_next_token str_ops F s1 = Ok (tt, s2) ->
  sc_token_available s2 = false ->
  ntb F (S b) s = ntb F b s2.
Proof.
  intros Hta Hn Hf Hta2. unfold ntb. cbn. rewrite Hta, Hta2. rewrite fmt_S. cbn. rewrite Hn. cbn. rewrite Hf. reflexivity.
Qed.

Lemma ntb_pop F b (s s1 : sc strin) :
  sc_token_available s = false -> need_comp s = Ok (false, s1) ->
  ntb F (S b) s = popk (set_ta true s1).
Proof. intros Hta Hn. unfold ntb. cbn. rewrite Hta. rewrite fmt_S. cbn. rewrite Hn. cbn. reflexivity. Qed.

Lemma popk_b cs l mk t r adj ska k ind inds tp ta lws : snd t <> TStreamEnd ->
  popk (mkb cs l mk (t :: r) adj ska k ind inds tp ta lws) = Ok (Some t, mkb cs l mk r adj ska k ind inds (tp + 1) false lws).
Proof. intros Ht. unfold popk, mkb. cbn. destruct t as [sp kd]. cbn [snd] in Ht. destruct kd; try congruence; reflexivity. Qed.

Definition delivers (F : nat) (s : sc strin) (toks : list token) (s' : sc strin) : Prop :=
  forall fuel acc, scan_all str_ops F (length toks + fuel) s acc = scan_all str_ops F fuel s' (rev toks ++ acc).

Lemma delivers_nil F s : delivers F s [] s.
Proof. intros fuel acc. reflexivity. Qed.
Lemma delivers_trans F s t1 s1 t2 s2 : delivers F s t1 s1 -> delivers F s1 t2 s2 -> delivers F s (t1 ++ t2) s2.
Proof.
  intros H1 H2 fuel acc. rewrite app_length, <- Nat.add_assoc, H1, H2, rev_app_distr, <- app_assoc. reflexivity.
Qed.
Lemma delivers_one F (s s' : sc strin) t : next_token str_ops F s = Ok (Some t, s') -> delivers F s [t] s'.
Proof. intros H fuel acc. cbn [length plus rev app]. rewrite scan_all_S, H. reflexivity. Qed.

Definition no_se (ts : list token) : Prop := Forall (fun t => snd t <> TStreamEnd) ts.

(* popping while no key is pending at the head of the queue *)
Lemma ntb_pop_b F b cs l mk t r adj ska k ind inds tp lws :
  snd t <> TStreamEnd -> (stale_k k mk && sk_required k) = false ->
  (sk_possible (staled k mk) && (sk_token_number (staled k mk) =? tp)) = false ->
  ntb F (S b) (mkb cs l mk (t :: r) adj ska k ind inds tp false lws)
  = Ok (Some t, mkb cs l mk r adj ska (staled k mk) ind inds (tp + 1) false lws).
Proof.
  intros Ht Hst Hnp.
  pose proof (need_b cs l mk t r adj ska k ind inds tp false lws Hst) as Hn. cbn zeta in Hn. fold (staled k mk) in Hn.
  rewrite Hnp in Hn. cbn [orb] in Hn.
  erewrite ntb_pop; [| reflexivity | exact Hn].
  apply (popk_b cs l mk t r adj ska (staled k mk) ind inds tp true lws Ht).
Qed.

Lemma pop_b F cs l mk t r adj ska k ind inds tp lws :
  (1 <= F)%nat -> snd t <> TStreamEnd -> (stale_k k mk && sk_required k) = false ->
  (sk_possible (staled k mk) && (sk_token_number (staled k mk) =? tp)) = false ->
  next_token str_ops F (mkb cs l mk (t :: r) adj ska k ind inds tp false lws)
  = Ok (Some t, mkb cs l mk r adj ska (staled k mk) ind inds (tp + 1) false lws).
Proof.
  intros HF Ht Hst Hnp. destruct F as [|F']; [lia|].
  rewrite (nt_ntb (S F') (S F')) by reflexivity. apply ntb_pop_b; assumption.
Qed.

Lemma stale_k_staled k mk : stale_k (staled k mk) mk = false.
Proof. unfold staled. destruct (stale_k k mk) eqn:E; [reflexivity|exact E]. Qed.
Lemma staled_idem k mk : staled (staled k mk) mk = staled k mk.
Proof. unfold staled at 1. rewrite stale_k_staled. reflexivity. Qed.
Lemma staled_req k mk : sk_required (staled k mk) = sk_required k.
Proof. unfold staled. destruct (stale_k k mk); reflexivity. Qed.
Lemma stale_staled k mk : (stale_k k mk && sk_required k) = false -> (stale_k (staled k mk) mk && sk_required (staled k mk)) = false.
Proof. intros _. rewrite stale_k_staled. reflexivity. Qed.

(* the tokens at the head of the queue are handed out while the key (its staleness settled) is not possible or stands for a
   token behind them *)
Lemma drain F ts : forall cs l mk r adj ska k ind inds tp lws,
  (1 <= F)%nat -> no_se ts -> stale_k k mk = false ->
  sk_possible k = false \/ tp + N.of_nat (length ts) <= sk_token_number k ->
  delivers F (mkb cs l mk (ts ++ r) adj ska k ind inds tp false lws) ts
             (mkb cs l mk r adj ska k ind inds (tp + N.of_nat (length ts)) false lws).
Proof.
  induction ts as [|t ts IH]; intros cs l mk r adj ska k ind inds tp lws HF Hts Hst Hk.
  - cbn [app length N.of_nat]. rewrite N.add_0_r. apply delivers_nil.
  - inversion Hts as [|? ? Ht Hts']; subst. cbn [length] in Hk.
    change (t :: ts) with ([t] ++ ts) at 2. eapply delivers_trans.
    + apply delivers_one. cbn [app].
      pose proof (pop_b F cs l mk t (ts ++ r) adj ska k ind inds tp lws HF Ht) as P.
      unfold staled in P. rewrite Hst in P. apply P; [reflexivity|].
      destruct Hk as [-> | Hk]; [reflexivity|].
      replace (sk_token_number k =? tp) with false by (symmetry; apply N.eqb_neq; lia). apply andb_false_r.
    + replace (tp + N.of_nat (length (t :: ts))) with (tp + 1 + N.of_nat (length ts)) by (cbn [length]; lia).
      apply IH; try assumption. destruct Hk as [Hk | Hk]; [left; exact Hk | right; lia].
Qed.

Lemma drain_b_r F ts : forall cs l mk r adj ska k ind inds tp lws,
  (1 <= F)%nat -> no_se ts -> sk_possible k = false ->
  delivers F (mkb cs l mk (ts ++ r) adj ska k ind inds tp false lws) ts
             (mkb cs l mk r adj ska k ind inds (tp + N.of_nat (length ts)) false lws).
Proof.
  intros cs l mk r adj ska k ind inds tp lws HF Hts Hk.
  apply drain; [exact HF | exact Hts | apply stale_k_not_possible, Hk | left; exact Hk].
Qed.

(* more budget does not change a successful fetch_more_tokens *)
Lemma fmt_mono F b : forall (s : sc strin) r, fetch_more_tokens str_ops F b s = Ok r -> fetch_more_tokens str_ops F (S b) s = Ok r.
Proof.
  induction b as [|b IH]; intros s r H; [discriminate|].
  rewrite fmt_S in H. rewrite fmt_S. cbn in H |- *.
  destruct (need_comp s) as [[nd s1]| | |]; try discriminate. destruct nd; [|exact H].
  cbn in H |- *. destruct (fetch_next_token str_ops F s1) as [[u s2]| | |]; try discriminate.
  apply IH, H.
Qed.
Lemma ntb_mono F b (s : sc strin) r : ntb F b s = Ok r -> ntb F (S b) s = Ok r.
Proof.
  unfold ntb. cbn. destruct (sc_token_available s); [auto|].
  destruct (fetch_more_tokens str_ops F b s) as [[u s1]| | |] eqn:E; try discriminate.
  intros H. rewrite (fmt_mono F b s _ E). exact H.
Qed.
Lemma ntb_mono_le F b b' (s : sc strin) r : (b <= b')%nat -> ntb F b s = Ok r -> ntb F b' s = Ok r.
Proof. intros Hb H. induction Hb as [|b' Hb IH]; [exact H|]. apply ntb_mono. exact IH. Qed.
Lemma nt_of_ntb F b (s : sc strin) r : sc_stream_end s = false -> (b <= F)%nat -> ntb F b s = Ok r -> next_token str_ops F s = Ok r.
Proof.
  intros Hse Hb H. rewrite (nt_ntb F F) by (reflexivity || exact Hse). exact (ntb_mono_le F b F s r Hb H).
Qed.

Lemma need_pending cs l mk t r adj ska k ind inds tp ta lws :
  stale_k k mk = false -> sk_possible k = true -> sk_token_number k = tp ->
  need_comp (mkb cs l mk (t :: r) adj ska k ind inds tp ta lws) = Ok (true, mkb cs l mk (t :: r) adj ska k ind inds tp ta lws).
Proof.
  intros Hst Hp Htn. rewrite need_b by (rewrite Hst; reflexivity). cbn zeta. rewrite Hst, Hp, Htn, N.eqb_refl. reflexivity.
Qed.


(* a state between two units: nothing queued *)
Definition canon (s : sc strin) : Prop :=
  sc_tokens s = [] /\ sc_token_available s = false /\ sc_stream_end s = false.
Lemma need_canon (s : sc strin) : sc_tokens s = [] -> need_comp s = Ok (true, s).
Proof. intros H. unfold need_comp. cbn. rewrite H. reflexivity. Qed.

(* one fetch on an empty queue, then the queue is handed out *)
Lemma unit1 F (s0 : sc strin) cs l mk t ts adj ska k ind inds tp lws :
  (2 <= F)%nat -> canon s0 ->
  fetch_next_token str_ops F s0 = Ok (tt, mkb cs l mk (t :: ts) adj ska k ind inds tp false lws) ->
  no_se (t :: ts) -> (stale_k k mk && sk_required k) = false -> sk_possible (staled k mk) = false ->
  delivers F s0 (t :: ts)
             (mkb cs l mk [] adj ska (staled k mk) ind inds (tp + N.of_nat (length (t :: ts))) false lws).
Proof.
  intros HF (Hq0 & Hta0 & Hse0) Hf Hse Hst Hnp. inversion Hse as [|? ? Ht Hts]; subst.
  change (t :: ts) with ([t] ++ ts) at 1. eapply delivers_trans.
  - apply delivers_one. apply (nt_of_ntb F 2); [exact Hse0 | exact HF |].
    erewrite ntb_fetch; [ | exact Hta0 | apply need_canon, Hq0 | exact Hf | reflexivity].
    apply ntb_pop_b; [exact Ht | exact Hst | rewrite Hnp; reflexivity].
  - replace (tp + N.of_nat (length (t :: ts))) with (tp + 1 + N.of_nat (length ts)) by (cbn [length]; lia).
    rewrite <- (app_nil_r ts) at 1. apply drain; [lia | exact Hts | apply stale_k_staled | left; exact Hnp].
Qed.

(* a key: the word is fetched, the tokens in front of it are handed out, then ':' is fetched (the key is pending at the head
   of the queue), then the queue is handed out *)
Lemma unit2 F (s0 : sc strin) adj tp
            cs1 l1 m1 pre kt ska1 rq mkk ind1 inds1 lws1
            cs2 l2 m2 t3 ts3 ska2 k2 ind2 inds2 lws2 :
  (3 <= F)%nat -> canon s0 ->
  fetch_next_token str_ops F s0
    = Ok (tt, mkb cs1 l1 m1 (pre ++ [kt]) adj ska1 (newkey rq (tp + N.of_nat (length pre)) mkk) ind1 inds1 tp false lws1) ->
  stale_k (newkey rq (tp + N.of_nat (length pre)) mkk) m1 = false ->
  fetch_next_token str_ops F (mkb cs1 l1 m1 [kt] adj ska1 (newkey rq (tp + N.of_nat (length pre)) mkk) ind1 inds1 (tp + N.of_nat (length pre)) false lws1)
    = Ok (tt, mkb cs2 l2 m2 (t3 :: ts3) adj ska2 k2 ind2 inds2 (tp + N.of_nat (length pre)) false lws2) ->
  no_se pre -> no_se (t3 :: ts3) -> (stale_k k2 m2 && sk_required k2) = false -> sk_possible (staled k2 m2) = false ->
  delivers F s0 (pre ++ t3 :: ts3)
             (mkb cs2 l2 m2 [] adj ska2 (staled k2 m2) ind2 inds2 (tp + N.of_nat (length pre) + N.of_nat (length (t3 :: ts3))) false lws2).
Proof.
  intros HF (Hq0 & Hta0 & Hse0) Hf1 Hst1 Hf2 Hse1 Hse3 Hst2 Hnp2.
  set (K := newkey rq (tp + N.of_nat (length pre)) mkk) in *.
  set (tp2 := tp + N.of_nat (length pre)) in *.
  inversion Hse3 as [|? ? Ht3 Hts3]; subst.
  (* from the state in which the key is at the head of the queue *)
  assert (Emid : forall b, ntb F (S (S b)) (mkb cs1 l1 m1 [kt] adj ska1 K ind1 inds1 tp2 false lws1)
                 = Ok (Some t3, mkb cs2 l2 m2 ts3 adj ska2 (staled k2 m2) ind2 inds2 (tp2 + 1) false lws2)).
  { intros b. erewrite ntb_fetch; [ | reflexivity | apply need_pending; [exact Hst1 | reflexivity | reflexivity] | exact Hf2 | reflexivity].
    apply ntb_pop_b; [exact Ht3 | exact Hst2 | rewrite Hnp2; reflexivity]. }
  assert (Etail : delivers F (mkb cs2 l2 m2 ts3 adj ska2 (staled k2 m2) ind2 inds2 (tp2 + 1) false lws2) ts3
                    (mkb cs2 l2 m2 [] adj ska2 (staled k2 m2) ind2 inds2 (tp2 + N.of_nat (length (t3 :: ts3))) false lws2)).
  { replace (tp2 + N.of_nat (length (t3 :: ts3))) with (tp2 + 1 + N.of_nat (length ts3)) by (cbn [length]; lia).
    rewrite <- (app_nil_r ts3) at 1. apply drain; [lia | exact Hts3 | apply stale_k_staled | left; exact Hnp2]. }
  destruct pre as [|p pre].
  - cbn [app length N.of_nat] in *. unfold tp2 in *. rewrite N.add_0_r in *.
    change (t3 :: ts3) with ([t3] ++ ts3). eapply delivers_trans; [|exact Etail].
    apply delivers_one. apply (nt_of_ntb F 3); [exact Hse0 | exact HF |].
    erewrite ntb_fetch; [ | exact Hta0 | apply need_canon, Hq0 | exact Hf1 | reflexivity].
    apply Emid.
  - inversion Hse1 as [|? ? Hp Hpre]; subst.
    change ((p :: pre) ++ t3 :: ts3) with ([p] ++ (pre ++ ([t3] ++ ts3))).
    eapply delivers_trans; [|eapply delivers_trans; [|eapply delivers_trans; [|exact Etail]]].
    + apply delivers_one. apply (nt_of_ntb F 2); [exact Hse0 | lia |].
      erewrite ntb_fetch; [ | exact Hta0 | apply need_canon, Hq0 | exact Hf1 | reflexivity].
      cbn [app]. apply ntb_pop_b; [exact Hp | rewrite Hst1; reflexivity |].
      unfold staled. rewrite Hst1. unfold K, newkey. cbn [sk_possible sk_token_number andb].
      apply N.eqb_neq. unfold tp2. cbn [length]. lia.
    + unfold staled. rewrite Hst1.
      apply (drain F pre cs1 l1 m1 [kt] adj ska1 K ind1 inds1 (tp + 1) lws1); try assumption; [lia|].
      right. unfold K, newkey, tp2. cbn [sk_token_number length]. unfold token in *. lia.
    + apply delivers_one. apply (nt_of_ntb F 2); [reflexivity | lia |].
      match goal with |- ntb _ _ (mkb _ _ _ _ _ _ _ _ _ ?x _ _) = _ =>
        replace x with tp2 by (unfold tp2; cbn [length]; unfold token in *; lia) end.
      apply Emid.
Qed.

(* where the scanner stands between two units *)
(* the pending key, if any, belongs to an earlier line and is not required (it goes stale silently) *)
Definition key_done (k : simple_key) (ln : N) : Prop :=
  sk_possible k = false \/ (sk_required k = false /\ m_line (sk_mark k) < ln).
Lemma key_done_stale k i ln c : key_done k ln ->
  (stale_k k (mkm i ln c) && sk_required k) = false /\ sk_possible (staled k (mkm i ln c)) = false.
Proof.
  unfold key_done, staled, stale_k. intros [Hp | [Hr Hl]].
  - rewrite Hp. cbn. split; [reflexivity|exact Hp].
  - rewrite Hr, andb_false_r. split; [reflexivity|]. destruct (sk_possible k) eqn:Hp; cbn; [|exact Hp].
    replace (m_line (sk_mark k) <? ln) with true by (symmetry; apply N.ltb_lt; exact Hl). reflexivity.
Qed.

(* at a token: the queue is empty, a simple key may start here, the stack holds the open block collections [cols] *)
Definition at_tok (s : sc strin) (cs : list N) (c : nat) (cols : list N) : Prop :=
  exists l i ln adj k tp lws,
    s = mkb cs l (mkm i ln (N.of_nat c)) [] adj true k (fst (stk cols)) (snd (stk cols)) tp false lws /\ key_done k ln.
(* behind "-" at the end of its line or behind "key:": the indent was raised by one column over the innermost collection *)
Definition at_below (s : sc strin) (cs : list N) (cols : list N) : Prop :=
  exists l i ln c0 adj ska k tp top rest,
    cols = top :: rest /\ top <= c0 /\
    s = mkb cs l (mkm i ln c0) [] adj ska k (Z.of_N top + 1)%Z (nbl (Z.of_N top) :: snd (stk cols)) tp false false /\
    sk_possible k = false.

Lemma first_ok_not_ws x : first_ok x -> not_ws x.
Proof. intros (H32 & H9 & _ & _ & H35). repeat split; assumption. Qed.

Lemma stk_top_le cols c : base_le cols (Z.of_N c) -> (fst (stk cols) <= Z.of_N c)%Z.
Proof. destruct cols as [|b r]; cbn; intros H; lia. Qed.


Lemma unroll_keep fuel col ind inds : (ind <= col)%Z -> unroll_pure (S fuel) col ind inds = Some (O, ind, inds).
Proof. intros H. cbn [unroll_pure]. replace (col <? ind)%Z with false by (symmetry; apply Z.ltb_ge; exact H). reflexivity. Qed.

Lemma canon_b cs l mk adj ska k ind inds tp lws : canon (mkb cs l mk [] adj ska k ind inds tp false lws).
Proof. repeat split. Qed.

(* the scanner has come to the first token of a line, at column c: the fetch has closed n collections, leaving the
   indentation stack (ind, inds), and dispatches on the first character of [txt] *)
Definition arrived (F : nat) (s : sc strin) (txt : list N) (c n : nat) (ind : Z) (inds : list indent_rec) : Prop :=
  canon s /\
  exists l' i ln adj k tp lws,
    (4 <= l')%nat /\ sk_possible k = false /\
    fetch_next_token str_ops F s
    = fnt_rest F (mkb txt l' (mkm i ln (N.of_nat c)) (repeat (be_tok (mkm i ln (N.of_nat c))) n) adj true k ind inds tp false lws).

(* arriving at the first token of a line (or of a compact collection): the collections right of it are closed *)
Lemma arrive_tok F s x cs c ext base :
  at_tok s (x :: cs) c (ext ++ base) -> first_ok x -> (x =? 0) = false ->
  Forall (fun e => (Z.of_nat c < Z.of_N e)%Z) ext -> base_le base (Z.of_nat c) -> (1 <= F)%nat ->
  canon s /\
  exists l' i ln adj k tp lws,
    (4 <= l')%nat /\ sk_possible k = false /\
    fetch_next_token str_ops F s
    = fnt_rest F (mkb (x :: cs) l' (mkm i ln (N.of_nat c)) (repeat (be_tok (mkm i ln (N.of_nat c))) (length ext)) adj true k
                       (fst (stk base)) (snd (stk base)) tp false lws).
Proof.
  intros (l & i & ln & adj & k & tp & lws & -> & Hk) Hx Hx0 Hext Hbase HF. split; [apply canon_b|].
  destruct (key_done_stale k i ln (N.of_nat c) Hk) as [Hst Hnp].
  exists (Nat.max (Nat.max (Nat.max l 1) 1) 4), i, ln, adj, (staled k (mkm i ln (N.of_nat c))), tp, lws.
  split; [lia|]. split; [exact Hnp|].
  erewrite fnt_b; [ | apply skip_none; [exact HF | exact Hx] | exact Hst
                    | cbn [m_col mkm]; rewrite nat_N_Z; apply unroll_stk; [exact Hext | exact Hbase | rewrite stk_len, app_length; lia] ].
  cbn [app]. apply tail_char, Hx0.
Qed.

(* arriving below "-" / "key:": the line break and the indentation are skipped, nothing is closed *)
Lemma arrive_below F s c x cs top rest :
  at_below s (10 :: repeat 32 c ++ x :: cs) (top :: rest) -> first_ok x -> (x =? 0) = false ->
  top < N.of_nat c -> (c + 2 <= F)%nat ->
  arrived F s (x :: cs) c 0 (Z.of_N top + 1)%Z (nbl (Z.of_N top) :: snd (stk (top :: rest))).
Proof.
  intros (l & i & ln & c0 & adj & ska & k & tp & top' & rest' & [= <- <-] & Htop & -> & Hk) Hx Hx0 Hc HF. split; [apply canon_b|].
  exists (Nat.max (Nat.max (Nat.max l 1) 2) 4), (i + 1 + N.of_nat c), (ln + 1), adj, k, tp, true.
  split; [lia|]. split; [exact Hk|].
  erewrite fnt_b; [ | apply skip_gap; [lia | exact Hx] | rewrite (stale_k_not_possible _ _ Hk); reflexivity
                    | cbn [m_col mkm]; apply unroll_keep; lia ].
  rewrite (staled_not_possible _ _ Hk). cbn [repeat]. rewrite app_nil_r. apply tail_char, Hx0.
Qed.

(* the blank behind "key:" *)
Lemma arrive_blank F s x cs cols :
  at_below s (32 :: x :: cs) cols -> first_ok x -> (x =? 0) = false -> (2 <= F)%nat ->
  canon s /\
  exists l' i ln c1 adj ska k tp top rest,
    cols = top :: rest /\ top < c1 /\ (4 <= l')%nat /\ sk_possible k = false /\
    fetch_next_token str_ops F s
    = fnt_rest F (mkb (x :: cs) l' (mkm i ln c1) [] adj ska k
                       (Z.of_N top + 1)%Z (nbl (Z.of_N top) :: snd (stk cols)) tp false false).
Proof.
  intros (l & i & ln & c0 & adj & ska & k & tp & top & rest & -> & Htop & -> & Hk) Hx Hx0 HF. split; [apply canon_b|].
  destruct Hx as (H32 & H9 & H10 & H13 & H35).
  exists (Nat.max (Nat.max (Nat.max l 1) 1) 4), (i + N.of_nat 1), ln, (c0 + N.of_nat 1), adj, ska, k, tp, top, rest.
  split; [reflexivity|]. split; [lia|]. split; [lia|]. split; [exact Hk|].
  erewrite fnt_b; [ | apply (skip_spaces_b 1); [lia | assumption..] | rewrite (stale_k_not_possible _ _ Hk); reflexivity
                    | cbn [m_col mkm]; apply unroll_keep; lia ].
  rewrite (staled_not_possible _ _ Hk). cbn [repeat]. rewrite app_nil_r. apply tail_char, Hx0.
Qed.

(* the first token of a line is reached: the scanner stands there, or -- for the first "-" of a sequence that stands at the
   column of its key -- in front of the line break behind "key:", the innermost open collection being the key's mapping *)
Definition reach (s : sc strin) (txt : list N) (c : nat) (cols : list N) : Prop :=
  at_tok s txt c cols \/ (exists rest, cols = N.of_nat c :: rest /\ at_below s (10 :: repeat 32 c ++ txt) cols).

Lemma arrive_reach F s x cs c ext base :
  reach s (x :: cs) c (ext ++ base) -> first_ok x -> (x =? 0) = false ->
  Forall (fun e => (Z.of_nat c < Z.of_N e)%Z) ext -> base_le base (Z.of_nat c) -> (c + 2 <= F)%nat ->
  arrived F s (x :: cs) c (length ext) (fst (stk base)) (snd (stk base)).
Proof.
  intros [Hat | (rest & Ecols & Hbel)] Hx Hx0 Hext Hbase HF.
  - apply arrive_tok; try assumption. lia.
  - (* the one-column raise behind "key:" is taken back by unroll_indent, without a BlockEnd *)
    assert (Eext : ext = []).
    { destruct ext as [|e ext']; [reflexivity|]. cbn [app] in Ecols. injection Ecols as -> _. inversion Hext; subst. lia. }
    subst ext. cbn [app] in Ecols. subst base. cbn [length repeat].
    destruct Hbel as (l & i & ln & c0 & adj & ska & k & tp & top & rest' & [= <- <-] & Htop & -> & Hk). split; [apply canon_b|].
    exists (Nat.max (Nat.max (Nat.max l 1) 2) 4), (i + 1 + N.of_nat c), (ln + 1), adj, k, tp, true.
    split; [lia|]. split; [exact Hk|].
    assert (Hun : unroll_pure (S (length (nbl (Z.of_N (N.of_nat c)) :: snd (stk (N.of_nat c :: rest))))) (Z.of_N (N.of_nat c))
                    (Z.of_N (N.of_nat c) + 1)%Z (nbl (Z.of_N (N.of_nat c)) :: snd (stk (N.of_nat c :: rest)))
                  = Some (O, fst (stk (N.of_nat c :: rest)), snd (stk (N.of_nat c :: rest)))).
    { cbn [length unroll_pure nbl in_indent in_needs_block_end stk fst snd].
      replace (Z.of_N (N.of_nat c) <? Z.of_N (N.of_nat c) + 1)%Z with true by (symmetry; apply Z.ltb_lt; lia).
      rewrite Z.ltb_irrefl. reflexivity. }
    erewrite fnt_b; [ | apply skip_gap; [lia | exact Hx] | rewrite (stale_k_not_possible _ _ Hk); reflexivity | exact Hun ].
    rewrite (staled_not_possible _ _ Hk). cbn [repeat]. rewrite app_nil_r. apply tail_char, Hx0.
Qed.

Lemma unit1' F (s0 : sc strin) cs l mk q adj ska k ind inds tp lws :
  (2 <= F)%nat -> canon s0 -> q <> [] ->
  fetch_next_token str_ops F s0 = Ok (tt, mkb cs l mk q adj ska k ind inds tp false lws) ->
  no_se q -> sk_possible k = false ->
  delivers F s0 q (mkb cs l mk [] adj ska k ind inds (tp + N.of_nat (length q)) false lws).
Proof.
  intros HF Hc Hq Hf Hse Hk. destruct q as [|t ts]; [congruence|].
  pose proof (unit1 F s0 cs l mk t ts adj ska k ind inds tp lws HF Hc Hf Hse) as H.
  unfold staled in H. rewrite (stale_k_not_possible k mk Hk) in H. apply H; [reflexivity|exact Hk].
Qed.

Lemma unit2' F (s0 : sc strin) adj tp
            cs1 l1 m1 pre kt ska1 rq mkk ind1 inds1 lws1
            cs2 l2 m2 q3 ska2 k2 ind2 inds2 lws2 :
  (3 <= F)%nat -> canon s0 -> q3 <> [] ->
  fetch_next_token str_ops F s0
    = Ok (tt, mkb cs1 l1 m1 (pre ++ [kt]) adj ska1 (newkey rq (tp + N.of_nat (length pre)) mkk) ind1 inds1 tp false lws1) ->
  stale_k (newkey rq (tp + N.of_nat (length pre)) mkk) m1 = false ->
  fetch_next_token str_ops F (mkb cs1 l1 m1 [kt] adj ska1 (newkey rq (tp + N.of_nat (length pre)) mkk) ind1 inds1 (tp + N.of_nat (length pre)) false lws1)
    = Ok (tt, mkb cs2 l2 m2 q3 adj ska2 k2 ind2 inds2 (tp + N.of_nat (length pre)) false lws2) ->
  no_se pre -> no_se q3 -> sk_possible k2 = false ->
  delivers F s0 (pre ++ q3)
             (mkb cs2 l2 m2 [] adj ska2 k2 ind2 inds2 (tp + N.of_nat (length pre) + N.of_nat (length q3)) false lws2).
Proof.
  intros HF Hc Hq Hf1 Hst1 Hf2 Hse1 Hse3 Hk. destruct q3 as [|t3 ts3]; [congruence|].
  pose proof (unit2 F s0 adj tp cs1 l1 m1 pre kt ska1 rq mkk ind1 inds1 lws1 cs2 l2 m2 t3 ts3 ska2 k2 ind2 inds2 lws2 HF Hc Hf1 Hst1 Hf2 Hse1 Hse3) as H.
  unfold staled in H. rewrite (stale_k_not_possible k2 m2 Hk) in H. apply H; [reflexivity|exact Hk].
Qed.

Lemma nb_top_stk cols : nb_top (snd (stk cols)) = false.
Proof. destruct cols; reflexivity. Qed.

Lemma at_tok_intro s cs l i ln cN adj k ind inds tp lws c cols :
  s = mkb cs l (mkm i ln cN) [] adj true k ind inds tp false lws -> cN = N.of_nat c -> (ind, inds) = stk cols -> key_done k ln ->
  at_tok s cs c cols.
Proof.
  intros -> -> E Hk. exists l, i, ln, adj, k, tp, lws. split; [|exact Hk].
  destruct (stk cols) as [a b]. injection E as -> ->. reflexivity.
Qed.

Lemma no_se_be mk n : no_se (repeat (be_tok mk) n).
Proof. apply Forall_forall. intros t Ht. apply repeat_spec in Ht. subst. discriminate. Qed.
Lemma no_se_app a b : no_se a -> no_se b -> no_se (a ++ b).
Proof. intros Ha Hb. apply Forall_app. split; assumption. Qed.
Lemma map_snd_be mk n : map snd (repeat (be_tok mk) n) = repeat TBlockEnd n.
Proof. induction n as [|n IH]; cbn; [reflexivity|]. rewrite IH. reflexivity. Qed.

(* the elements of block collections *)
(* how a "-" / a key at column c relates to the stack below the collections it closes: it opens a collection right of the
   innermost one, or goes on with the innermost one *)
Definition joins (opens : bool) (c : nat) (base : list N) : Prop :=
  if opens then (fst (stk base) < Z.of_nat c)%Z /\ (length base < 255)%nat else exists rest, base = N.of_nat c :: rest.
Definition joined (opens : bool) (c : nat) (base : list N) : list N := if opens then N.of_nat c :: base else base.

Lemma joins_base_le opens c base : joins opens c base -> base_le base (Z.of_nat c).
Proof.
  destruct opens; cbn.
  - intros [H _]. destruct base as [|b r]; cbn in *; lia.
  - intros (rest & ->). cbn. lia.
Qed.

Lemma col_ge_top base c : base_le base (Z.of_nat c) -> (Z.of_N (N.of_nat c) <? fst (stk base))%Z = false.
Proof. intros H. apply Z.ltb_ge. rewrite nat_N_Z. destruct base as [|b r]; cbn in *; lia. Qed.

Lemma roll_joins opens c base tk m : joins opens c base ->
  forall q cs l mk adj ska k tp ta lws,
  roll_indent (N.of_nat c) None tk m (mkb cs l mk q adj ska k (fst (stk base)) (snd (stk base)) tp ta lws)
  = Ok (tt, mkb cs l mk (q ++ (if opens then [(span_empty m, tk)] else [])) adj ska k
              (fst (stk (joined opens c base))) (snd (stk (joined opens c base))) tp ta lws).
Proof.
  intros Hj q cs l mk adj ska k tp ta lws. destruct opens; cbn in Hj |- *.
  - destruct Hj as [Hlt Hlen]. apply roll_push; [apply nb_top_stk | rewrite nat_N_Z; exact Hlt | rewrite stk_len; exact Hlen].
  - destruct Hj as (rest & ->). rewrite app_nil_r. cbn [stk fst snd]. apply roll_same. reflexivity.
Qed.

Definition dash_toks (n : nat) (opens : bool) : list tok :=
  repeat TBlockEnd n ++ (if opens then [TBlockSequenceStart] else []) ++ [TBlockEntry].

(* "- x": a sequence entry at the first token of a line (or compact), something follows on the line.  What roll_indent does to
   the stack is a hypothesis: the entry goes on with the innermost collection, or opens one *)
Lemma dash_sp_at F s x r c n ind inds (opens : bool) cols' :
  arrived F s (45 :: 32 :: x :: r) c n ind inds -> (Z.of_N (N.of_nat c) <? ind)%Z = false ->
  (forall m q cs l mk adj ska k tp ta lws,
     roll_indent (N.of_nat c) None TBlockSequenceStart m (mkb cs l mk q adj ska k ind inds tp ta lws)
     = Ok (tt, mkb cs l mk (q ++ (if opens then [(span_empty m, TBlockSequenceStart)] else [])) adj ska k
                 (fst (stk cols')) (snd (stk cols')) tp ta lws)) ->
  not_ws x -> is_break x = false -> is_flow x = false -> (2 <= F)%nat ->
  exists toks s', delivers F s toks s' /\ map snd toks = dash_toks n opens /\ at_tok s' (x :: r) (c + 2) cols'.
Proof.
  intros (Hcanon & l' & i & ln & adj & k & tp & lws & Hl' & Hk & Hf) Hcol Hroll Hx Hbr Hfl HF.
  rewrite rest_dash in Hf; [ | exact Hl' | reflexivity | reflexivity | exact Hcol].
  rewrite (entry_step_sp F i ln (N.of_nat c) (repeat (be_tok (mkm i ln (N.of_nat c))) n) _ ind _ inds _
             (Hroll (mkm i ln (N.of_nat c)) _) (plain_last_be (mkm i ln (N.of_nat c)) _) x r l' adj k tp false lws HF Hx Hbr Hfl
             ltac:(unfold not_req; rewrite Hk; reflexivity)) in Hf.
  eexists. eexists. split; [|split].
  - eapply unit1'; [lia | exact Hcanon | | exact Hf | | reflexivity].
    + intros E. apply app_eq_nil in E as [_ E]. discriminate.
    + apply no_se_app; [apply no_se_app; [apply no_se_be|destruct opens; repeat constructor; discriminate]|repeat constructor; discriminate].
  - rewrite !map_app, map_snd_be. unfold dash_toks. rewrite <- app_assoc. destruct opens; reflexivity.
  - eapply at_tok_intro; [reflexivity | lia | destruct (stk cols'); reflexivity | left; reflexivity].
Qed.

Lemma at_below_intro s cs l i ln c0 adj ska k tp top rest :
  s = mkb cs l (mkm i ln c0) [] adj ska k (Z.of_N top + 1)%Z (nbl (Z.of_N top) :: snd (stk (top :: rest))) tp false false ->
  top <= c0 -> sk_possible k = false -> at_below s cs (top :: rest).
Proof. intros -> H1 H2. exists l, i, ln, c0, adj, ska, k, tp, top, rest. repeat split; assumption. Qed.

(* "-" at the end of its line: the entry stands on the lines below *)
Lemma dash_nl_at F s r c n ind inds (opens : bool) rest' :
  arrived F s (45 :: 10 :: r) c n ind inds -> (Z.of_N (N.of_nat c) <? ind)%Z = false ->
  (forall m q cs l mk adj ska k tp ta lws,
     roll_indent (N.of_nat c) None TBlockSequenceStart m (mkb cs l mk q adj ska k ind inds tp ta lws)
     = Ok (tt, mkb cs l mk (q ++ (if opens then [(span_empty m, TBlockSequenceStart)] else [])) adj ska k
                 (fst (stk (N.of_nat c :: rest'))) (snd (stk (N.of_nat c :: rest'))) tp ta lws)) ->
  (2 <= F)%nat ->
  exists toks s', delivers F s toks s' /\ map snd toks = dash_toks n opens /\ at_below s' (10 :: r) (N.of_nat c :: rest').
Proof.
  intros (Hcanon & l' & i & ln & adj & k & tp & lws & Hl' & Hk & Hf) Hcol Hroll HF.
  rewrite rest_dash in Hf; [ | exact Hl' | reflexivity | reflexivity | exact Hcol].
  rewrite (entry_step_nl F i ln (N.of_nat c) (repeat (be_tok (mkm i ln (N.of_nat c))) n) _ ind _ inds _
             (Hroll (mkm i ln (N.of_nat c)) _) (plain_last_be (mkm i ln (N.of_nat c)) _) r l' adj k tp false lws
             (lvl (fst (stk rest'))) (snd (stk rest')) ltac:(lia)
             ltac:(unfold not_req; rewrite Hk; reflexivity) eq_refl eq_refl) in Hf.
  eexists. eexists. split; [|split].
  - eapply unit1'; [lia | exact Hcanon | | exact Hf | | reflexivity].
    + intros E. apply app_eq_nil in E as [_ E]. discriminate.
    + apply no_se_app; [apply no_se_app; [apply no_se_be|destruct opens; repeat constructor; discriminate]|repeat constructor; discriminate].
  - rewrite !map_app, map_snd_be. unfold dash_toks. rewrite <- app_assoc. destruct opens; reflexivity.
  - eapply at_below_intro; [reflexivity | lia | reflexivity].
Qed.

Lemma joined_cons opens c base : joins opens c base -> exists rest, joined opens c base = N.of_nat c :: rest.
Proof. destruct opens; cbn; [eauto|]. intros (rest & ->). eauto. Qed.

Lemma dash_sp F s x r c ext base opens :
  reach s (45 :: 32 :: x :: r) c (ext ++ base) ->
  Forall (fun e => (Z.of_nat c < Z.of_N e)%Z) ext -> joins opens c base ->
  not_ws x -> is_break x = false -> is_flow x = false -> (c + 2 <= F)%nat ->
  exists toks s', delivers F s toks s' /\ map snd toks = dash_toks (length ext) opens /\
                  at_tok s' (x :: r) (c + 2) (joined opens c base).
Proof.
  intros Hat Hext Hj Hx Hbr Hfl HF. pose proof (joins_base_le _ _ _ Hj) as Hb.
  exact (dash_sp_at F s x r c (length ext) _ _ opens _
           (arrive_reach F s 45 _ c ext base Hat ltac:(repeat split; reflexivity) eq_refl Hext Hb ltac:(lia)) (col_ge_top base c Hb)
           (fun m => roll_joins opens c base _ m Hj) Hx Hbr Hfl ltac:(lia)).
Qed.

Lemma dash_nl F s r c ext base opens :
  reach s (45 :: 10 :: r) c (ext ++ base) ->
  Forall (fun e => (Z.of_nat c < Z.of_N e)%Z) ext -> joins opens c base -> (c + 2 <= F)%nat ->
  exists toks s', delivers F s toks s' /\ map snd toks = dash_toks (length ext) opens /\
                  at_below s' (10 :: r) (joined opens c base).
Proof.
  intros Hat Hext Hj HF. pose proof (joins_base_le _ _ _ Hj) as Hb. pose proof (roll_joins opens c base TBlockSequenceStart) as Hroll.
  destruct (joined_cons opens c base Hj) as (rest' & Ej). rewrite Ej in *.
  exact (dash_nl_at F s r c (length ext) _ _ opens rest'
           (arrive_reach F s 45 _ c ext base Hat ltac:(repeat split; reflexivity) eq_refl Hext Hb ltac:(lia)) (col_ge_top base c Hb)
           (fun m => Hroll m Hj) ltac:(lia)).
Qed.

(* the first "-" of a sequence that stands below its parent *)
Lemma roll_below c top rest tk m : top < N.of_nat c -> (length (top :: rest) < 255)%nat ->
  forall q cs l mk adj ska k tp ta lws,
  roll_indent (N.of_nat c) None tk m (mkb cs l mk q adj ska k (Z.of_N top + 1)%Z (nbl (Z.of_N top) :: snd (stk (top :: rest))) tp ta lws)
  = Ok (tt, mkb cs l mk (q ++ [(span_empty m, tk)]) adj ska k (fst (stk (N.of_nat c :: top :: rest))) (snd (stk (N.of_nat c :: top :: rest))) tp ta lws).
Proof.
  intros Hlt Hlen q cs l mk adj ska k tp ta lws.
  apply (roll_push_nb (N.of_nat c) tk m cs l mk q adj ska k (Z.of_N top + 1)%Z (Z.of_N top) (snd (stk (top :: rest))) tp ta lws); [lia | lia |].
  rewrite stk_len. exact Hlen.
Qed.

Lemma unroll_nb_stk cols : unroll_nb (snd (stk cols)) (fst (stk cols)) = stk cols.
Proof. destruct cols as [|c r]; reflexivity. Qed.
Lemma unroll_nb_below top rest : unroll_nb (nbl (Z.of_N top) :: snd (stk (top :: rest))) (Z.of_N top + 1)%Z = stk (top :: rest).
Proof. reflexivity. Qed.

Definition key_toks (opens : bool) (kw : str) : list tok :=
  (if opens then [TBlockMappingStart] else []) ++ [TKey; TScalar Plain kw; TValue].

(* the second half of a key unit: the key's scalar is queued behind [pre], the scanner stands at ':' *)
Lemma key_unit F s adj tp y r l1 i ln c len pre sp kw rq base opens :
  (3 <= F)%nat -> canon s ->
  fetch_next_token str_ops F s
    = Ok (tt, mkb (58 :: y :: r) l1 (mkm (i + len) ln (N.of_nat c + len)) (pre ++ [(sp, TScalar Plain kw)]) adj false
                (newkey rq (tp + N.of_nat (length pre)) (mkm i ln (N.of_nat c))) (fst (stk base)) (snd (stk base)) tp false false) ->
  0 < len -> len <= SIMPLE_KEY_MAX -> y = 32 \/ y = 10 -> joins opens c base -> no_se pre ->
  exists q3 s', delivers F s (pre ++ q3) s' /\ map snd q3 = key_toks opens kw /\ at_below s' (y :: r) (joined opens c base).
Proof.
  intros HF Hcanon Hf1 Hlen0 Hlen Hy Hj Hpre.
  set (K := newkey rq (tp + N.of_nat (length pre)) (mkm i ln (N.of_nat c))) in *.
  set (m1 := mkm (i + len) ln (N.of_nat c + len)) in *.
  assert (Hst1 : stale_k K m1 = false).
  { unfold stale_k, K, m1, newkey, mkm. cbn. rewrite N.ltb_irrefl. cbn.
    apply N.ltb_ge. lia. }
  assert (Hyb : is_blank_or_breakz y = true /\ (y =? 9) = false) by (destruct Hy as [-> | ->]; split; reflexivity).
  destruct Hyb as [Hyb Hy9].
  assert (Hle : (fst (stk base) <= Z.of_N (N.of_nat c + len))%Z).
  { pose proof (stk_top_le base (N.of_nat c) ltac:(rewrite nat_N_Z; apply (joins_base_le _ _ _ Hj))). lia. }
  assert (Hf2 : exists l3, fetch_next_token str_ops F (mkb (58 :: y :: r) l1 m1 [(sp, TScalar Plain kw)] adj false K (fst (stk base)) (snd (stk base))
                                               (tp + N.of_nat (length pre)) false false)
                = Ok (tt, mkb (y :: r) l3 (mkm (i + len + 1) ln (N.of_nat c + len + 1))
                            (([] ++ (if opens then [(span_empty (mkm i ln (N.of_nat c)), TBlockMappingStart)] else [])
                                 ++ [key_tok (mkm i ln (N.of_nat c)); (sp, TScalar Plain kw)])
                               ++ [(span_empty m1, TValue)])
                            adj false (unposs K) (Z.of_N (N.of_nat c) + 1)%Z
                            (nbl (Z.of_N (N.of_nat c)) :: snd (stk (joined opens c base))) (tp + N.of_nat (length pre)) false false)).
  { eexists. erewrite fnt_b; [ | apply skip_none; [lia | repeat split; reflexivity] | rewrite Hst1; reflexivity
                      | apply unroll_keep; exact Hle].
    unfold staled. rewrite Hst1. cbn [repeat]. rewrite app_nil_r.
    rewrite tail_char by reflexivity.
    unfold m1. rewrite rest_colon; [ | exact Hyb | apply N.eqb_neq; lia | apply Z.ltb_ge; exact Hle].
    pose proof (value_step_b F opens y r (Nat.max (Nat.max (Nat.max l1 1) 1) 4) (i + len) ln (N.of_nat c + len) [] (sp, TScalar Plain kw) adj false rq i (N.of_nat c)
                  (fst (stk base)) (snd (stk base)) (tp + N.of_nat (length pre)) false false Hyb Hy9 (nb_top_stk base)) as V.
    cbn [length N.of_nat app] in V. rewrite N.add_0_r in V. fold K in V. cbn [app].
    etransitivity; [apply V|].
    - destruct opens; cbn in Hj |- *.
      + destruct Hj as [H1 H2]. split; [rewrite nat_N_Z; exact H1 | rewrite stk_len; exact H2].
      + destruct Hj as (rest & ->). split; [reflexivity | discriminate].
    - unfold m1. destruct opens; reflexivity. }
  destruct Hf2 as (l3 & Hf2).
  eexists. eexists. split; [|split].
  - eapply (unit2' F s adj tp (58 :: y :: r) l1 m1 pre (sp, TScalar Plain kw) false rq (mkm i ln (N.of_nat c)));
      [exact HF | exact Hcanon | | exact Hf1 | exact Hst1 | exact Hf2 | exact Hpre | | reflexivity].
    + intros E. apply app_eq_nil in E as [_ E]. discriminate.
    + destruct opens; repeat constructor; discriminate.
  - unfold key_toks. destruct opens; reflexivity.
  - destruct (joined_cons opens c base Hj) as (rest & Ej). rewrite Ej.
    eapply at_below_intro; [rewrite <- Ej; reflexivity | lia | reflexivity].
Qed.

Lemma wch_first_ok x : wch x = true -> first_ok x /\ (x =? 0) = false.
Proof.
  intros H. destruct (wch_facts x H) as (Hb & _ & _ & H35 & _). destruct (blankz_facts x Hb) as (H32 & H9 & H10 & H13 & H0).
  repeat split; assumption.
Qed.

Lemma stk_req_ne base c : (fst (stk base) =? Z.of_N c)%Z = true -> snd (stk base) <> [].
Proof. destruct base as [|b r]; cbn; [intros H; apply Z.eqb_eq in H; lia | discriminate]. Qed.

(* a key at the first token of a line (or of a compact mapping); [base]: the open collections when the key's word is scanned *)
Lemma key_at F s c0 w y r c n ind inds base opens :
  arrived F s (c0 :: w ++ 58 :: y :: r) c n ind inds -> (Z.of_N (N.of_nat c) <? ind)%Z = false ->
  unroll_nb inds ind = stk base -> ((ind =? Z.of_N (N.of_nat c))%Z = true -> inds <> []) ->
  forallb wch (c0 :: w) = true -> wlen c0 w <= SIMPLE_KEY_MAX -> y = 32 \/ y = 10 -> joins opens c base ->
  (2 * length w + 3 <= F)%nat ->
  exists toks s', delivers F s toks s' /\ map snd toks = repeat TBlockEnd n ++ key_toks opens (c0 :: w) /\
                  at_below s' (y :: r) (joined opens c base).
Proof.
  intros (Hcanon & l' & i & ln & adj & k & tp & lws & Hl' & Hk & Hf) Hcol Hnb Hreq Hw Hlen Hy Hj HF.
  rewrite rest_key in Hf; [ | exact Hw | exact Hl' | exact Hcol].
  assert (Hyb : is_blank_or_breakz y = true) by (destruct Hy as [-> | ->]; reflexivity).
  destruct (word_key_step F c0 w y r l' i ln (N.of_nat c) (repeat (be_tok (mkm i ln (N.of_nat c))) n) adj true k
              ind inds (fst (stk base)) (snd (stk base)) tp false lws Hw Hyb
              ltac:(rewrite Hnb; destruct (stk base); reflexivity) Hreq HF) as (l1 & E1).
  rewrite E1 in Hf. unfold saved in Hf. cbn [m_col mkm] in Hf.
  destruct (key_unit F s adj tp y r l1 i ln c (wlen c0 w) (repeat (be_tok (mkm i ln (N.of_nat c))) n) _ (c0 :: w) _ base opens
              ltac:(lia) Hcanon Hf ltac:(unfold wlen; cbn [length]; lia) Hlen Hy Hj (no_se_be _ _)) as (q3 & s' & Hd & Hm & Hb).
  exists (repeat (be_tok (mkm i ln (N.of_nat c))) n ++ q3), s'. split; [exact Hd|]. split; [|exact Hb].
  rewrite map_app, map_snd_be. f_equal. exact Hm.
Qed.

Lemma key_at_tok F s c0 w y r c ext base opens :
  at_tok s (c0 :: w ++ 58 :: y :: r) c (ext ++ base) ->
  forallb wch (c0 :: w) = true -> wlen c0 w <= SIMPLE_KEY_MAX -> y = 32 \/ y = 10 ->
  Forall (fun e => (Z.of_nat c < Z.of_N e)%Z) ext -> joins opens c base -> (2 * length w + 3 <= F)%nat ->
  exists toks s', delivers F s toks s' /\ map snd toks = repeat TBlockEnd (length ext) ++ key_toks opens (c0 :: w) /\
                  at_below s' (y :: r) (joined opens c base).
Proof.
  intros Hat Hw Hlen Hy Hext Hj HF. pose proof (joins_base_le _ _ _ Hj) as Hb.
  pose proof Hw as Hw0. cbn [forallb] in Hw0. apply andb_prop in Hw0 as [Hc0 _]. destruct (wch_first_ok c0 Hc0) as [Hfo Hnz].
  exact (key_at F s c0 w y r c (length ext) _ _ base opens (arrive_tok F s c0 _ c ext base Hat Hfo Hnz Hext Hb ltac:(lia))
           (col_ge_top base c Hb) (unroll_nb_stk base) (stk_req_ne base (N.of_nat c)) Hw Hlen Hy Hj HF).
Qed.

(* the text grammar against the token grammar *)
Section bnode_ind2.
  Variable P : bnode -> Prop.
  Hypothesis HW : forall w, P (BW w).
  Hypothesis HS : forall pl items, Forall P items -> P (BS pl items).
  Hypothesis HM : forall pl pairs, Forall (fun p : str * bnode => P (snd p)) pairs -> P (BM pl pairs).
  Hypothesis HI : forall items, Forall P items -> P (BI items).
  Fixpoint bnode_ind2 (n : bnode) : P n :=
    match n with
    | BW w => HW w
    | BS pl items => HS pl items (Forall_all P bnode_ind2 items)
    | BM pl pairs => HM pl pairs (Forall_all _ (fun p => bnode_ind2 (snd p)) pairs)
    | BI items => HI items (Forall_all P bnode_ind2 items)
    end.
End bnode_ind2.

Definition item_text (c : nat) (x : bnode) : str := 45 :: lead c x ++ brender (child_col c x) x.
Definition pair_text (c : nat) (p : str * bnode) : str := fst p ++ 58 :: lead c (snd p) ++ brender (child_col c (snd p)) (snd p).

Definition item_toks (x : bnode) : list tok := TBlockEntry :: tokens_of (blt x).
Definition pair_toks (p : str * bnode) : list tok := [TKey; TScalar Plain (fst p); TValue] ++ tokens_of (blt (snd p)).
Lemma tokens_BS pl items : tokens_of (blt (BS pl items)) = TBlockSequenceStart :: flat_map item_toks items ++ [TBlockEnd].
Proof. cbn [blt tokens_of]. rewrite props_none. cbn [app]. rewrite flat_map_concat_map, map_map, <- flat_map_concat_map. reflexivity. Qed.
Lemma tokens_BI items : tokens_of (blt (BI items)) = flat_map item_toks items.
Proof. cbn [blt tokens_of]. rewrite props_none. cbn [app]. rewrite flat_map_concat_map, map_map, <- flat_map_concat_map. reflexivity. Qed.
Lemma tokens_BM pl pairs : tokens_of (blt (BM pl pairs)) = TBlockMappingStart :: flat_map pair_toks pairs ++ [TBlockEnd].
Proof.
  cbn [blt tokens_of]. rewrite props_none. cbn [app]. f_equal. f_equal.
  rewrite flat_map_concat_map, map_map, <- flat_map_concat_map. apply flat_map_ext. intros [k v]. reflexivity.
Qed.

(* the tokens of a collection in front of the BlockEnd that closes it *)
Definition open_toks (n : bnode) : list tok :=
  match n with
  | BS _ items => TBlockSequenceStart :: flat_map item_toks items
  | BM _ pairs => TBlockMappingStart :: flat_map pair_toks pairs
  | _ => []
  end.
Lemma tokens_open n : b_is_coll n = true -> tokens_of (blt n) = open_toks n ++ [TBlockEnd].
Proof. destruct n as [w|pl items|pl pairs|items]; try discriminate; intros _; [apply tokens_BS | apply tokens_BM]. Qed.

(* the text in front of an arbitrary rest of the input *)
(* [brz col n R]: the text of n without the line feed that ends it, then R (so brender col n ++ W = brz col n (10 :: W)).
   The elements behind the first one of a collection stand on lines of their own: each brings the line feed and the
   indentation in front of it *)
Definition morez {A} (f : A -> str -> str) (col : nat) (r : list A) (R : str) : str :=
  fold_right (fun y acc => 10 :: spaces col ++ f y acc) R r.
Definition joinz {A} (f : A -> str -> str) (col : nat) (l : list A) (R : str) : str :=
  match l with [] => R | x :: r => f x (morez f col r R) end.
Fixpoint brz (col : nat) (n : bnode) (R : str) : str :=
  match n with
  | BW w => w ++ R
  | BS _ items | BI items => joinz (fun x R' => 45 :: lead col x ++ brz (child_col col x) x R') col items R
  | BM _ pairs => joinz (fun p R' => fst p ++ 58 :: lead col (snd p) ++ brz (child_col col (snd p)) (snd p) R') col pairs R
  end.
Definition itemz (c : nat) (x : bnode) (R : str) : str := 45 :: lead c x ++ brz (child_col c x) x R.
Definition pairz (c : nat) (p : str * bnode) (R : str) : str := fst p ++ 58 :: lead c (snd p) ++ brz (child_col c (snd p)) (snd p) R.

Lemma joinz_app {A} (f : A -> str -> str) c l :
  Forall (fun x => forall R W, f x (R ++ W) = f x R ++ W) l -> forall R W, joinz f c l (R ++ W) = joinz f c l R ++ W.
Proof.
  intros H R W. destruct l as [|x r]; [reflexivity|]. inversion H as [|? ? Hx Hr]; subst. cbn [joinz]. rewrite <- Hx. f_equal.
  clear H Hx. induction Hr as [|y r Hy Hr IH]; [reflexivity|]. cbn [morez fold_right]. fold (morez f c r (R ++ W)) (morez f c r R).
  rewrite IH, Hy. cbn [app]. rewrite app_assoc. reflexivity.
Qed.

Lemma brz_app : forall n c R W, brz c n (R ++ W) = brz c n R ++ W.
Proof.
  apply (bnode_ind2 (fun n => forall c R W, brz c n (R ++ W) = brz c n R ++ W)).
  - intros w c R W. apply app_assoc.
  - intros pl items IH c R W. apply joinz_app. eapply Forall_impl; [|exact IH]. intros x Hx R' W'. cbn beta. rewrite Hx. cbn [app]. rewrite <- app_assoc. reflexivity.
  - intros pl pairs IH c R W. apply joinz_app. eapply Forall_impl; [|exact IH]. intros p Hp R' W'. cbn beta. rewrite Hp, <- app_assoc. cbn [app]. rewrite <- app_assoc. reflexivity.
  - intros items IH c R W. apply joinz_app. eapply Forall_impl; [|exact IH]. intros x Hx R' W'. cbn beta. rewrite Hx. cbn [app]. rewrite <- app_assoc. reflexivity.
Qed.
Lemma brz_length c n R : length (brz c n R) = (length (brz c n []) + length R)%nat.
Proof. rewrite <- app_length, <- brz_app. reflexivity. Qed.

Lemma bjoin_joinz {A} (f : A -> str) (g : A -> str -> str) c l :
  l <> [] -> Forall (fun x => forall W, f x ++ W = g x (10 :: W)) l -> forall W, bjoin c (map f l) ++ W = joinz g c l (10 :: W).
Proof.
  intros Hne H W. destruct l as [|x r]; [congruence|]. inversion H as [|? ? Hx Hr]; subst. cbn [map bjoin joinz].
  rewrite <- app_assoc, Hx. f_equal.
  clear H Hx Hne. induction Hr as [|y r Hy Hr IH]; [reflexivity|]. cbn [map flat_map morez fold_right]. fold (morez g c r (10 :: W)).
  rewrite <- IH, <- !app_assoc, Hy. reflexivity.
Qed.

Lemma brender_brz : forall n inl c W, bwf inl n = true -> brender c n ++ W = brz c n (10 :: W).
Proof.
  apply (bnode_ind2 (fun n => forall inl c W, bwf inl n = true -> brender c n ++ W = brz c n (10 :: W))).
  - intros w inl c W _. cbn [brender brz]. rewrite <- app_assoc. reflexivity.
  - intros pl items IH inl c W H. cbn [bwf] in H. apply andb_prop in H as [H Hall]. apply andb_prop in H as [_ Hne].
    apply bjoin_joinz; [destruct items; discriminate|].
    rewrite Forall_forall in *. rewrite forallb_forall in Hall. intros x Hx W'. cbn [app]. rewrite <- app_assoc, (IH x Hx true _ _ (Hall x Hx)). reflexivity.
  - intros pl pairs IH inl c W H. cbn [bwf] in H. apply andb_prop in H as [H Hall]. apply andb_prop in H as [_ Hne].
    apply bjoin_joinz; [destruct pairs; discriminate|].
    rewrite Forall_forall in *. rewrite forallb_forall in Hall. intros p Hp W'. specialize (Hall p Hp). apply andb_prop in Hall as [_ Hv].
    rewrite <- !app_assoc. cbn [app]. rewrite <- app_assoc, (IH p Hp false _ _ Hv). reflexivity.
  - intros items IH inl c W H. cbn [bwf] in H. apply andb_prop in H as [H Hall]. apply andb_prop in H as [_ Hne].
    apply bjoin_joinz; [destruct items; discriminate|].
    rewrite Forall_forall in *. rewrite forallb_forall in Hall. intros x Hx W'. cbn [app]. rewrite <- app_assoc, (IH x Hx true _ _ (Hall x Hx)). reflexivity.
Qed.

(* the first character of a node *)
Lemma brz_first c n R : bwf true n = true \/ bwf false n = true ->
  exists x cs, brz c n R = x :: cs /\ (x = 45 \/ wch x = true).
Proof.
  intros H. destruct n as [w|pl items|pl pairs|items].
  4:{ assert (Hne : nonempty items = true).
      { destruct H as [H|H]; cbn [bwf] in H; apply andb_prop in H as [H _]; apply andb_prop in H as [_ H]; exact H. }
      destruct items as [|x xs]; [discriminate|]. eexists; eexists. split; [reflexivity|]. left; reflexivity. }
  - assert (Hw : word_ok w = true) by (destruct H as [H|H]; exact H).
    destruct (word_first w Hw) as (x & w' & -> & Hx). exists x, (w' ++ R). split; [reflexivity|]. right.
    cbn [forallb] in Hx. apply andb_prop in Hx as [Hx _]. exact Hx.
  - assert (Hne : nonempty items = true).
    { destruct H as [H|H]; cbn [bwf] in H; apply andb_prop in H as [H _]; apply andb_prop in H as [_ H]; exact H. }
    destruct items as [|x xs]; [discriminate|]. eexists; eexists. split; [reflexivity|]. left; reflexivity.
  - assert (Hp : nonempty pairs = true /\ forallb (fun p => key_ok (fst p) && bwf false (snd p)) pairs = true).
    { destruct H as [H|H]; cbn [bwf] in H; apply andb_prop in H as [H H2]; apply andb_prop in H as [_ H]; split; assumption. }
    destruct Hp as [Hne Hall]. destruct pairs as [|[k v] ps]; [discriminate|]. cbn [brz joinz fst snd].
    cbn [forallb fst snd] in Hall. apply andb_prop in Hall as [Hk _]. apply andb_prop in Hk as [Hk _]. unfold key_ok in Hk. apply andb_prop in Hk as [Hk _].
    destruct (word_first k Hk) as (x & w' & -> & Hx). eexists; eexists. split; [reflexivity|]. right.
    cbn [forallb] in Hx. apply andb_prop in Hx as [Hx _]. exact Hx.
Qed.

(* the induction *)
(* how the scanner comes to the first token of a collection at column cc: it stands there (the root; a compact collection
   behind "- "), or in front of the line break behind "-" / "key:" *)
Definition arrives (s : sc strin) (cc : nat) (txt : list N) (cols : list N) : Prop :=
  at_tok s txt cc cols \/ at_below s (10 :: repeat 32 cc ++ txt) cols.
Definition top_lt (cols : list N) (cc : nat) : Prop := (fst (stk cols) < Z.of_nat cc)%Z.

(* [pend] BlockEnd tokens are owed; the tokens T are scanned except for the BlockEnds owed at the end ([ext'], the
   collections still open, all right of [low]); the scanner stands at the first character [tl] of the next line *)
Definition scanned_b (F : nat) (s : sc strin) (pend : nat) (T : list tok) (tl : list N) (c' : nat) (cols : list N) (low : Z) : Prop :=
  exists toks s' ext', delivers F s toks s'
     /\ repeat TBlockEnd pend ++ T = map snd toks ++ repeat TBlockEnd (length ext')
     /\ at_tok s' tl c' (ext' ++ cols) /\ Forall (fun e => (low < Z.of_N e)%Z) ext'.

(* [F] stands for the character fuel of [Drivers.scan_str], which runs  scan_all F (4 * F + 20)  with
   F = 2 * |text| + 10; [scan_block] puts these values in (at the root cc = 0).  The bound 255 in the contracts below is
   [Consts.BLOCK_NESTING_MAX], the number of open block collections at which roll_indent fails (site 46). *)
Definition fuel_ok (F : nat) (txt : list N) (cc : nat) : Prop := (2 * length txt + 2 * cc + 8 <= F)%nat.

Definition CollScan (X : bnode) : Prop :=
  forall F cc cols s c' tl,
    arrives s cc (brender cc X ++ repeat 32 c' ++ tl) cols -> top_lt cols cc -> (length cols + bdepth X <= 255)%nat ->
    line_first tl -> (c' <= cc)%nat -> fuel_ok F (brender cc X ++ repeat 32 c' ++ tl) cc ->
    scanned_b F s 0 (tokens_of (blt X)) tl c' cols (fst (stk cols)).

(* in front of the last word of a node: behind "- " (the scanner stands at it) or behind "key:" (in front of the blank) *)
Definition at_last (s : sc strin) (txt : list N) (cols : list N) : Prop :=
  (exists cw top rest, cols = top :: rest /\ top < N.of_nat cw /\ at_tok s txt cw cols) \/ at_below s (32 :: txt) cols.

(* the same up to the last word (c0 :: w) of the text only: the scanner stands in front of it, its token and the BlockEnds
   are owed; R is the input behind the word, of which nothing has been looked at *)
Definition scanned_l (F : nat) (s : sc strin) (pend : nat) (T : list tok) (R : list N) (cols : list N) (low : Z) : Prop :=
  exists toks s' ext' c0 w, delivers F s toks s' /\ forallb wch (c0 :: w) = true /\ (2 * length w + 5 <= F)%nat
     /\ repeat TBlockEnd pend ++ T = map snd toks ++ TScalar Plain (c0 :: w) :: repeat TBlockEnd (length ext')
     /\ at_last s' (c0 :: w ++ R) (ext' ++ cols) /\ Forall (fun e => (low < Z.of_N e)%Z) ext'.

Lemma first_char_facts x : x = 45 \/ wch x = true -> not_ws x /\ is_break x = false /\ is_flow x = false.
Proof.
  intros [-> | H]; [repeat split; reflexivity|].
  destruct (wch_facts x H) as (Hb & Hfw & _ & H35 & _). destruct (blankz_facts x Hb) as (H32 & H9 & H10 & H13 & _).
  repeat split; try assumption. unfold is_break. rewrite H10, H13. reflexivity.
Qed.

Lemma top_lt_joins cols cc : top_lt cols cc -> (length cols < 255)%nat -> joins true cc cols.
Proof. intros H1 H2. split; assumption. Qed.
Lemma top_lt_cons cols cc : top_lt cols cc -> match cols with t :: _ => t < N.of_nat cc | [] => True end.
Proof. unfold top_lt. destruct cols as [|t r]; cbn; [trivial|lia]. Qed.

Lemma at_below_cols s cs cols : at_below s cs cols -> exists top rest, cols = top :: rest.
Proof. intros (l & i & ln & c0 & adj & ska & k & tp & top & rest & -> & _). eauto. Qed.

(* the fetch in front of the last word: it is a plain scalar away from column 0 and right of the innermost open collection;
   the key saved for it is not required *)
Lemma at_last_fetch F s c0 w R cols :
  at_last s (c0 :: w ++ R) cols -> wch c0 = true -> (2 <= F)%nat ->
  canon s /\
  exists l' i ln c1 adj ska k tp lws ind inds,
    (c1 =? 0) = false /\ (fst (stk cols) < Z.of_N c1)%Z /\ unroll_nb inds ind = stk cols /\
    ((ind =? Z.of_N c1)%Z = true -> inds <> []) /\ key_done (saved ska k ind inds tp [] (mkm i ln c1)) (ln + 1) /\
    fetch_next_token str_ops F s = fetch_plain_scalar str_ops F (mkb (c0 :: w ++ R) l' (mkm i ln c1) [] adj ska k ind inds tp false lws).
Proof.
  intros Hat Hc0 HF. destruct (wch_first_ok c0 Hc0) as [Hfo Hnz].
  destruct Hat as [(cw & top & rest & -> & Hlt & Hat) | Hat].
  - destruct (arrive_tok F s c0 (w ++ R) cw [] (top :: rest) Hat Hfo Hnz ltac:(constructor) ltac:(cbn; lia) ltac:(lia))
      as (Hcanon & l' & i & ln & adj & k & tp & lws & Hl' & Hk & Hf).
    assert (Hcw : (N.of_nat cw =? 0) = false) by (apply N.eqb_neq; lia).
    rewrite rest_word_b in Hf; [ | exact Hc0 | exact Hcw | apply Z.ltb_ge; cbn; lia].
    split; [exact Hcanon|]. exists l', i, ln, (N.of_nat cw), adj, true, k, tp, lws, (fst (stk (top :: rest))), (snd (stk (top :: rest))).
    repeat split; [exact Hcw | cbn; lia | discriminate | | exact Hf].
    right. unfold saved, req. cbn [newkey sk_required sk_mark fst snd stk m_col m_line mkm].
    replace (Z.of_N top =? Z.of_N (N.of_nat cw))%Z with false by (symmetry; apply Z.eqb_neq; lia). split; [reflexivity | lia].
  - destruct (arrive_blank F s c0 (w ++ R) cols Hat Hfo Hnz HF)
      as (Hcanon & l' & i & ln & c1 & adj & ska & k & tp & top & rest & -> & Hc1 & Hl' & Hk & Hf).
    assert (Hcw : (c1 =? 0) = false) by (apply N.eqb_neq; lia).
    rewrite rest_word_b in Hf; [ | exact Hc0 | exact Hcw | apply Z.ltb_ge; lia].
    split; [exact Hcanon|]. exists l', i, ln, c1, adj, ska, k, tp, false, (Z.of_N top + 1)%Z, (nbl (Z.of_N top) :: snd (stk (top :: rest))).
    repeat split; [exact Hcw | cbn; lia | discriminate | | exact Hf].
    unfold saved. destruct ska; [right | left; exact Hk].
    unfold req. cbn [newkey sk_required sk_mark nbl in_needs_block_end m_line mkm]. rewrite andb_false_r. split; [reflexivity | lia].
Qed.

(* the word is followed by a line break: it is scanned, up to the first character of the next line.  The line is not
   indented more than the innermost open collection, which stands at c or right of it *)
Lemma line_of_last F s pend T c' tl c cols :
  scanned_l F s pend T (10 :: repeat 32 c' ++ tl) (N.of_nat c :: cols) (Z.of_nat c) -> line_first tl -> (c' <= c)%nat -> (c' + 2 <= F)%nat ->
  scanned_b F s pend T tl c' (N.of_nat c :: cols) (Z.of_nat c).
Proof.
  intros (toks & s' & ext' & c0 & w & Hd & Hw & HFw & He & Hat & Hf) Htl Hc' HF.
  assert (Htop : (Z.of_nat c' <= fst (stk (ext' ++ N.of_nat c :: cols)))%Z).
  { destruct ext' as [|e ext'']; cbn; [lia|]. inversion Hf; subst. lia. }
  pose proof Hw as Hw0. cbn [forallb] in Hw0. apply andb_prop in Hw0 as [Hc0 _].
  destruct (at_last_fetch F s' c0 w _ _ Hat Hc0 ltac:(lia))
    as (Hcanon & l' & i & ln & c1 & adj & ska & k & tp & lws & ind & inds & Hc1 & Hlt & Hnb & Hreq & HK & Hfe).
  set (cols' := ext' ++ N.of_nat c :: cols) in *.
  destruct (word_value_step F c0 w c' tl l' i ln c1 [] adj ska k ind inds (fst (stk cols')) (snd (stk cols')) tp false lws Hw
              ltac:(rewrite Hc1; apply andb_false_r) ltac:(rewrite Hnb; apply surjective_pairing) Hreq Htl Htop ltac:(lia) HF) as (l1 & E1).
  rewrite E1 in Hfe. cbn [app length N.of_nat] in Hfe.
  destruct (key_done_stale _ (i + wlen c0 w + 1 + N.of_nat c') (ln + 1) (N.of_nat c') HK) as [HK1 HK2].
  eexists (toks ++ _), _, ext'. split; [|split; [|split; [|exact Hf]]].
  - eapply delivers_trans; [exact Hd|]. eapply unit1; [lia | exact Hcanon | exact Hfe | repeat constructor; discriminate | exact HK1 | exact HK2].
  - rewrite He, map_app, <- app_assoc. reflexivity.
  - eapply at_tok_intro; [reflexivity | reflexivity | symmetry; apply surjective_pairing | left; exact HK2].
Qed.

(* head tokens, then a child *)
Lemma scanned_head_l F s pend t1 s1 H T1 R cols low :
  delivers F s t1 s1 -> map snd t1 = repeat TBlockEnd pend ++ H ->
  scanned_l F s1 0 T1 R cols low -> scanned_l F s pend (H ++ T1) R cols low.
Proof.
  intros Hd1 Hm1 (toks1 & s2 & ext1 & c0 & w & Hd2 & Hw & HFw & He2 & Hat2 & Hf2).
  exists (t1 ++ toks1), s2, ext1, c0, w. split; [eapply delivers_trans; eassumption|]. repeat (split; [assumption|]). split; [|split; assumption].
  cbn [repeat app] in He2. rewrite app_assoc, <- Hm1, He2, map_app, <- app_assoc. reflexivity.
Qed.

(* complete lines, then the lines up to the last word *)
Lemma scanned_app_l F s pend T1 T2 tl1 c1 R cols low :
  scanned_b F s pend T1 tl1 c1 cols low ->
  (forall s2 ext1, at_tok s2 tl1 c1 (ext1 ++ cols) -> Forall (fun e => (low < Z.of_N e)%Z) ext1 ->
                   scanned_l F s2 (length ext1) T2 R cols low) ->
  scanned_l F s pend (T1 ++ T2) R cols low.
Proof.
  intros (toks1 & s2 & ext1 & Hd1 & He1 & Hat1 & Hf1) Htail.
  destruct (Htail s2 ext1 Hat1 Hf1) as (toks2 & s3 & ext2 & c0 & w & Hd2 & Hw & HFw & He2 & Hat2 & Hf2).
  exists (toks1 ++ toks2), s3, ext2, c0, w. split; [eapply delivers_trans; eassumption|]. repeat (split; [assumption|]). split; [|split; assumption].
  rewrite app_assoc, He1, <- app_assoc, He2, map_app, <- app_assoc. reflexivity.
Qed.

(* closing the collection itself: its own level joins the levels owed *)
Lemma scanned_close_l F s T R cc cols :
  top_lt cols cc ->
  scanned_l F s 0 T R (N.of_nat cc :: cols) (Z.of_nat cc) ->
  scanned_l F s 0 (T ++ [TBlockEnd]) R cols (fst (stk cols)).
Proof.
  intros Htop (toks & s' & ext' & c0 & w & Hd1 & Hw & HFw & He & Hat & Hf).
  exists toks, s', (ext' ++ [N.of_nat cc]), c0, w. split; [exact Hd1|]. split; [exact Hw|]. split; [exact HFw|]. split; [|split].
  - cbn [repeat app] in He |- *. rewrite app_length. cbn [length]. rewrite Nat.add_1_r. cbn [repeat].
    rewrite <- repeat_snoc, He, <- app_assoc. reflexivity.
  - rewrite <- app_assoc. exact Hat.
  - apply Forall_app. split; [|constructor; [unfold top_lt in Htop; lia|constructor]].
    eapply Forall_impl; [|exact Hf]. intros e He'. unfold top_lt in Htop. cbn beta in He'. lia.
Qed.
Lemma scanned_close F s Hd T tl c' cc cols :
  top_lt cols cc ->
  scanned_b F s 0 (Hd :: T) tl c' (N.of_nat cc :: cols) (Z.of_nat cc) ->
  scanned_b F s 0 (Hd :: T ++ [TBlockEnd]) tl c' cols (fst (stk cols)).
Proof.
  intros Htop (toks & s' & ext' & Hd1 & He & Hat & Hf).
  exists toks, s', (ext' ++ [N.of_nat cc]). split; [exact Hd1|]. split; [|split].
  - cbn [repeat app] in He |- *. rewrite app_length. cbn [length]. rewrite Nat.add_1_r. cbn [repeat].
    rewrite <- repeat_snoc. rewrite app_assoc, <- He. reflexivity.
  - rewrite <- app_assoc. exact Hat.
  - apply Forall_app. split; [|constructor; [unfold top_lt in Htop; lia|constructor]].
    eapply Forall_impl; [|exact Hf]. intros e He'. unfold top_lt in Htop. cbn beta in He'. lia.
Qed.

(* "-" and "key:" in front of a child *)
Lemma lead_cases c x : lead c x = [32] \/ exists r, lead c x = 10 :: r.
Proof. destruct x as [w|[d|] items|[d|] pairs|items]; cbn [lead]; eauto. Qed.

(* the state behind the "-" of an item at column c whose lead is [ld] and whose text goes on with T *)
Definition after_dash_z (s : sc strin) (ld : str) (c : nat) (cols : list N) (T : str) : Prop :=
  match ld with 10 :: _ => at_below s (ld ++ T) cols | _ => at_tok s T (c + 2) cols end.
(* what is known of ld and T: behind "- " stands a "-" or a word *)
Definition dash_ok (ld T : str) : Prop :=
  (ld = [32] /\ exists x cs, T = x :: cs /\ (x = 45 \/ wch x = true)) \/ exists r, ld = 10 :: r.

Lemma dash_ok_lead c x R : bwf true x = true -> dash_ok (lead c x) (brz (child_col c x) x R).
Proof. intros H. destruct (lead_cases c x) as [E | E]; [left; split; [exact E | apply brz_first; left; exact H] | right; exact E]. Qed.

Lemma dash_item_z F s ld T c ext base opens :
  reach s (45 :: ld ++ T) c (ext ++ base) -> dash_ok ld T ->
  Forall (fun e => (Z.of_nat c < Z.of_N e)%Z) ext -> joins opens c base -> (c + 2 <= F)%nat ->
  exists toks s', delivers F s toks s' /\ map snd toks = dash_toks (length ext) opens /\
                  after_dash_z s' ld c (joined opens c base) T.
Proof.
  intros Hat [[-> (x0 & cs0 & -> & Hx0)] | (r & ->)] Hext Hj HF; cbn [app after_dash_z] in *.
  - destruct (first_char_facts x0 Hx0) as (H1 & H2 & H3). exact (dash_sp F s x0 cs0 c ext base opens Hat Hext Hj H1 H2 H3 HF).
  - exact (dash_nl F s (r ++ T) c ext base opens Hat Hext Hj HF).
Qed.

(* the first "-" of a sequence that stands below its parent *)
Lemma dash_item_below_z F s ld T c top rest0 :
  at_below s (10 :: repeat 32 c ++ 45 :: ld ++ T) (top :: rest0) -> dash_ok ld T ->
  top < N.of_nat c -> (length (top :: rest0) < 255)%nat -> (c + 2 <= F)%nat ->
  exists toks s', delivers F s toks s' /\ map snd toks = dash_toks 0 true /\ after_dash_z s' ld c (N.of_nat c :: top :: rest0) T.
Proof.
  intros Hat [[-> (x0 & cs0 & -> & Hx0)] | (r & ->)] Hlt Hlen HF; cbn [app after_dash_z] in *;
    pose proof (arrive_below F s c 45 _ top rest0 Hat ltac:(repeat split; reflexivity) eq_refl Hlt HF) as Harr;
    assert (Hcol : (Z.of_N (N.of_nat c) <? Z.of_N top + 1)%Z = false) by (apply Z.ltb_ge; lia).
  - destruct (first_char_facts x0 Hx0) as (H1 & H2 & H3).
    exact (dash_sp_at F s x0 cs0 c 0 _ _ true _ Harr Hcol (fun m => roll_below c top rest0 _ m Hlt Hlen) H1 H2 H3 ltac:(lia)).
  - exact (dash_nl_at F s (r ++ T) c 0 _ _ true _ Harr Hcol (fun m => roll_below c top rest0 _ m Hlt Hlen) ltac:(lia)).
Qed.

(* the state behind the "-" of an item x of a sequence at column c *)
Definition after_dash (s : sc strin) (x : bnode) (c : nat) (cols : list N) (rest : list N) : Prop :=
  match x with
  | BW _ | BS None _ | BM None _ => at_tok s (brender (c + 2) x ++ rest) (c + 2) (N.of_nat c :: cols)
  | BS (Some d) _ | BM (Some d) _ => at_below s (lead c x ++ brender (c + 1 + d) x ++ rest) (N.of_nat c :: cols)
  | BI _ => False                                  (* an indentless sequence is no item of a sequence *)
  end.

(* "-" in front of the item x, when the scanner stands at it *)
Lemma dash_item F s x c ext base opens rest :
  reach s (item_text c x ++ rest) c (ext ++ base) -> bwf true x = true ->
  Forall (fun e => (Z.of_nat c < Z.of_N e)%Z) ext -> joins opens c base -> (c + 2 <= F)%nat ->
  exists toks s', delivers F s toks s' /\ map snd toks = dash_toks (length ext) opens /\
                  after_dash s' x c (match joined opens c base with _ :: r => r | [] => [] end) rest /\
                  exists r, joined opens c base = N.of_nat c :: r.
Proof.
  intros Hat Hwf Hext Hj HF. destruct (joined_cons opens c base Hj) as (r0 & Ej).
  unfold item_text in Hat. cbn [app] in Hat. rewrite <- app_assoc, (brender_brz x true _ rest Hwf) in Hat.
  destruct (dash_item_z F s _ _ c ext base opens Hat (dash_ok_lead c x _ Hwf) Hext Hj HF) as (toks & s' & H1 & H2 & H3).
  exists toks, s'. rewrite Ej in *. rewrite <- (brender_brz x true _ rest Hwf) in H3. repeat split; [exact H1 | exact H2 | | eauto].
  destruct x as [w|[d|] items|[d|] pairs|items]; [exact H3..|discriminate].
Qed.

Lemma key_ok_word k : key_ok k = true -> exists c0 w, k = c0 :: w /\ forallb wch (c0 :: w) = true /\ wlen c0 w <= SIMPLE_KEY_MAX.
Proof.
  unfold key_ok. intros H. apply andb_prop in H as [Hw Hs]. destruct (word_first k Hw) as (c0 & w & -> & Hcw).
  exists c0, w. split; [reflexivity|]. split; [exact Hcw|]. unfold key_short, key_max in Hs. apply N.leb_le in Hs. exact Hs.
Qed.

(* "key:" in front of the value v, whose text goes on with T *)
Lemma key_item_z F s k v c ext base opens T :
  at_tok s (k ++ 58 :: lead c v ++ T) c (ext ++ base) -> key_ok k = true ->
  Forall (fun e => (Z.of_nat c < Z.of_N e)%Z) ext -> joins opens c base -> (2 * length k + 3 <= F)%nat ->
  exists toks s', delivers F s toks s' /\ map snd toks = repeat TBlockEnd (length ext) ++ key_toks opens k /\
                  at_below s' (lead c v ++ T) (joined opens c base).
Proof.
  intros Hat Hk Hext Hj HF. destruct (key_ok_word k Hk) as (c0 & w & -> & Hw & Hlen). cbn [length] in HF.
  destruct (lead_cases c v) as [El | (r & El)]; rewrite El in Hat |- *; cbn [app] in Hat |- *.
  - exact (key_at_tok F s c0 w 32 _ c ext base opens Hat Hw Hlen (or_introl eq_refl) Hext Hj ltac:(lia)).
  - exact (key_at_tok F s c0 w 10 _ c ext base opens Hat Hw Hlen (or_intror eq_refl) Hext Hj ltac:(lia)).
Qed.

(* the first key of a mapping that stands below its parent *)
Lemma key_item_below_z F s k v c top rest0 T :
  at_below s (10 :: repeat 32 c ++ k ++ 58 :: lead c v ++ T) (top :: rest0) -> key_ok k = true ->
  top < N.of_nat c -> (length (top :: rest0) < 255)%nat -> (2 * length k + 3 <= F)%nat -> (c + 2 <= F)%nat ->
  exists toks s', delivers F s toks s' /\ map snd toks = key_toks true k /\
                  at_below s' (lead c v ++ T) (N.of_nat c :: top :: rest0).
Proof.
  intros Hat Hk Hlt Hlen255 HF HF2. destruct (key_ok_word k Hk) as (c0 & w & -> & Hw & Hlen). cbn [length] in HF.
  pose proof Hw as Hw0. cbn [forallb] in Hw0. apply andb_prop in Hw0 as [Hc0 _]. destruct (wch_first_ok c0 Hc0) as [Hfo Hnz].
  assert (Hkey : forall y r, y = 32 \/ y = 10 -> at_below s (10 :: repeat 32 c ++ c0 :: w ++ 58 :: y :: r) (top :: rest0) ->
            exists toks s', delivers F s toks s' /\ map snd toks = key_toks true (c0 :: w) /\ at_below s' (y :: r) (N.of_nat c :: top :: rest0)).
  { intros y r Hy Hat'.
    exact (key_at F s c0 w y r c 0 _ _ (top :: rest0) true (arrive_below F s c c0 _ top rest0 Hat' Hfo Hnz Hlt HF2) ltac:(apply Z.ltb_ge; lia)
             (unroll_nb_below top rest0) ltac:(discriminate) Hw Hlen Hy ltac:(split; [cbn; lia | exact Hlen255]) ltac:(lia)). }
  destruct (lead_cases c v) as [El | (r & El)]; rewrite El in Hat |- *; cbn [app] in Hat |- *; apply Hkey; auto.
Qed.

Lemma key_item F s p c ext base opens rest :
  at_tok s (pair_text c p ++ rest) c (ext ++ base) -> key_ok (fst p) = true ->
  Forall (fun e => (Z.of_nat c < Z.of_N e)%Z) ext -> joins opens c base -> (2 * length (fst p) + 3 <= F)%nat ->
  exists toks s', delivers F s toks s' /\ map snd toks = repeat TBlockEnd (length ext) ++ key_toks opens (fst p) /\
                  at_below s' (lead c (snd p) ++ brender (child_col c (snd p)) (snd p) ++ rest) (joined opens c base).
Proof.
  intros Hat Hk Hext Hj HF. unfold pair_text in Hat. rewrite <- app_assoc in Hat. cbn [app] in Hat. rewrite <- app_assoc in Hat.
  exact (key_item_z F s (fst p) (snd p) c ext base opens _ Hat Hk Hext Hj HF).
Qed.

(* every node: up to its last word *)
(* a collection X at column cc, R behind it: its tokens in front of the BlockEnd that closes it *)
Definition LastScan (X : bnode) : Prop :=
  forall F cc cols s R,
    arrives s cc (brz cc X R) cols -> top_lt cols cc -> (length cols + bdepth X <= 255)%nat -> fuel_ok F (brz cc X R) cc ->
    scanned_l F s 0 (open_toks X) R (N.of_nat cc :: cols) (Z.of_nat cc).
(* an indentless sequence (the value of a key of the mapping at column c, which is the innermost open collection): its items
   are scanned like the further items of a sequence at c; it owes no BlockEnd of its own *)
Definition ILast (items : list bnode) : Prop :=
  forall F c cols s R,
    at_below s (10 :: repeat 32 c ++ brz c (BI items) R) (N.of_nat c :: cols) ->
    (S (length cols) + bdepth (BI items) <= 255)%nat -> fuel_ok F (brz c (BI items) R) c ->
    scanned_l F s 0 (flat_map item_toks items) R (N.of_nat c :: cols) (Z.of_nat c).
Definition LastOK (x : bnode) : Prop :=
  (b_is_coll x = true -> LastScan x) /\ (forall items, x = BI items -> ILast items).

Lemma bdepth_in items x : In x items -> (bdepth x <= fold_right (fun y m => Nat.max (bdepth y) m) O items)%nat.
Proof. induction items as [|y r IH]; intros H; [destruct H|]. cbn [fold_right]. destruct H as [->|H]; [lia|]. specialize (IH H). lia. Qed.
Lemma bdepth_pair pl pairs p : In p pairs -> (bdepth (snd p) < bdepth (BM pl pairs))%nat.
Proof.
  cbn [bdepth]. induction pairs as [|y r IH]; intros H; [destruct H|]. cbn [fold_right]. destruct H as [->|H]; [lia|].
  specialize (IH H). lia.
Qed.

Ltac lens H := unfold spaces in H; repeat (progress (rewrite ?app_length, ?repeat_length in H; cbn [length] in H)).
Ltac lensg := unfold spaces; repeat (progress (rewrite ?app_length, ?repeat_length; cbn [length])).

(* a collection as a child of an entry of the collection at column c, behind "-" / "key:" [h] *)
Lemma coll_child F s h x c cols R :
  b_is_coll x = true -> LastScan x ->
  after_dash_z s (lead c x) c (N.of_nat c :: cols) (brz (child_col c x) x R) -> (S (length cols) + bdepth x <= 255)%nat ->
  fuel_ok F (h :: lead c x ++ brz (child_col c x) x R) c ->
  scanned_l F s 0 (tokens_of (blt x)) R (N.of_nat c :: cols) (Z.of_nat c).
Proof.
  intros Hc HL Had Hd Hfuel. unfold fuel_ok in Hfuel.
  assert (Harr : arrives s (child_col c x) (brz (child_col c x) x R) (N.of_nat c :: cols) /\ (c < child_col c x <= c + length (lead c x) + 1)%nat).
  { destruct x as [w|[d|] items|[d|] pairs|items]; try discriminate; cbn [lead child_col after_dash_z] in *; unfold spaces;
      cbn [length]; rewrite ?repeat_length; (split; [|lia]); [right|left|right|left]; exact Had. }
  destruct Harr as [Harr Hcc].
  rewrite (tokens_open x Hc). replace (Z.of_nat c) with (fst (stk (N.of_nat c :: cols))) by (cbn; lia).
  apply (scanned_close_l F s _ R (child_col c x) (N.of_nat c :: cols)); [unfold top_lt; cbn; lia|].
  apply HL; [exact Harr | unfold top_lt; cbn; lia | cbn [length]; lia |].
  unfold fuel_ok. lens Hfuel. lia.
Qed.

(* an item behind its "-" *)
Lemma seq_child F s x c cols R :
  after_dash_z s (lead c x) c (N.of_nat c :: cols) (brz (child_col c x) x R) -> bwf true x = true -> LastOK x ->
  (S (length cols) + bdepth x <= 255)%nat -> fuel_ok F (itemz c x R) c ->
  scanned_l F s 0 (tokens_of (blt x)) R (N.of_nat c :: cols) (Z.of_nat c).
Proof.
  intros Had Hwf (HC & _) Hd Hfuel. destruct (b_is_coll x) eqn:Hc; [exact (coll_child F s 45 x c cols R Hc (HC eq_refl) Had Hd Hfuel)|].
  destruct x as [w|pl items|pl pairs|items]; try discriminate.
  cbn [bwf] in Hwf. destruct (word_first w Hwf) as (c0 & w' & -> & Hw).
  cbn [lead child_col brz after_dash_z] in Had. unfold fuel_ok, itemz in Hfuel. cbn [lead child_col brz] in Hfuel. lens Hfuel.
  exists [], s, [], c0, w'. split; [apply delivers_nil|]. split; [exact Hw|]. split; [lia|]. split; [reflexivity|]. split; [|constructor].
  left. exists (c + 2)%nat, (N.of_nat c), cols. split; [reflexivity|]. split; [lia|exact Had].
Qed.

(* a value behind its "key:" *)
Lemma map_child F s v c cols R :
  at_below s (lead c v ++ brz (child_col c v) v R) (N.of_nat c :: cols) -> bwf false v = true -> LastOK v ->
  (S (length cols) + bdepth v <= 255)%nat -> fuel_ok F (58 :: lead c v ++ brz (child_col c v) v R) c ->
  scanned_l F s 0 (tokens_of (blt v)) R (N.of_nat c :: cols) (Z.of_nat c).
Proof.
  intros Hat Hwf (HC & HI) Hd Hfuel.
  destruct v as [w|[d|] items|[d|] pairs|items]; try discriminate Hwf;
    [ | apply (coll_child F s 58); [reflexivity | exact (HC eq_refl) | exact Hat | exact Hd | exact Hfuel] .. | ].
  - cbn [bwf] in Hwf. destruct (word_first w Hwf) as (c0 & w' & -> & Hw).
    cbn [lead child_col brz app] in Hat, Hfuel. unfold fuel_ok in Hfuel. lens Hfuel.
    exists [], s, [], c0, w'. split; [apply delivers_nil|]. split; [exact Hw|]. split; [lia|]. split; [reflexivity|]. split; [|constructor].
    right. exact Hat.
  - rewrite tokens_BI. cbn [lead child_col] in Hat, Hfuel. apply (HI items eq_refl F c cols s R Hat Hd).
    unfold fuel_ok in *. lens Hfuel. lia.
Qed.

(* a sequence entry at the column of its sequence, when the scanner stands at its "-" *)
Lemma seq_entry F s x c ext base opens R :
  reach s (itemz c x R) c (ext ++ base) -> Forall (fun e => (Z.of_nat c < Z.of_N e)%Z) ext -> joins opens c base ->
  bwf true x = true -> LastOK x -> (length (joined opens c base) + bdepth x <= 255)%nat -> fuel_ok F (itemz c x R) c ->
  scanned_l F s (length ext) ((if opens then [TBlockSequenceStart] else []) ++ item_toks x) R (joined opens c base) (Z.of_nat c).
Proof.
  intros Hat Hext Hj Hwf Hx Hd Hfuel. destruct (joined_cons opens c base Hj) as (r0 & Ej).
  destruct (dash_item_z F s _ _ c ext base opens Hat (dash_ok_lead c x R Hwf) Hext Hj ltac:(unfold fuel_ok in Hfuel; lia))
    as (t1 & s1 & Hd1 & Hm1 & Had).
  rewrite Ej in *. change (item_toks x) with ([TBlockEntry] ++ tokens_of (blt x)). rewrite app_assoc.
  eapply scanned_head_l; [exact Hd1 | exact Hm1 |].
  apply seq_child; [exact Had | exact Hwf | exact Hx | cbn [length] in Hd; exact Hd | exact Hfuel].
Qed.

(* a mapping entry at the column of its mapping, when the scanner stands at its key *)
Lemma map_entry F s p c ext base opens R :
  at_tok s (pairz c p R) c (ext ++ base) -> Forall (fun e => (Z.of_nat c < Z.of_N e)%Z) ext -> joins opens c base ->
  key_ok (fst p) = true -> bwf false (snd p) = true -> LastOK (snd p) ->
  (length (joined opens c base) + bdepth (snd p) <= 255)%nat -> fuel_ok F (pairz c p R) c ->
  scanned_l F s (length ext) ((if opens then [TBlockMappingStart] else []) ++ pair_toks p) R (joined opens c base) (Z.of_nat c).
Proof.
  intros Hat Hext Hj Hk Hwf Hv Hd Hfuel. destruct (joined_cons opens c base Hj) as (r0 & Ej).
  unfold fuel_ok, pairz in Hfuel. lens Hfuel.
  destruct (key_item_z F s (fst p) (snd p) c ext base opens _ Hat Hk Hext Hj ltac:(lia)) as (t1 & s1 & Hd1 & Hm1 & Hab).
  rewrite Ej in *. unfold pair_toks, key_toks in *. rewrite app_assoc.
  eapply scanned_head_l; [exact Hd1 | exact Hm1 |].
  apply map_child; [exact Hab | exact Hwf | exact Hv | cbn [length] in Hd; exact Hd |].
  unfold fuel_ok. lensg. lia.
Qed.

(* the entries behind the first one of a collection at column c: one induction for sequences and mappings.  [ez y R] is the
   text of the entry y from its first character on with R behind it, [etoks y] its tokens *)
Section Entries.
  Context {A : Type} (ez : A -> str -> str) (etoks : A -> list tok) (F c : nat) (cols : list N).
  Definition entry_ok (y : A) : Prop :=
    (forall R, line_first (ez y R)) /\ (forall R, (length R <= length (ez y R))%nat) /\
    forall s ext R, at_tok s (ez y R) c (ext ++ N.of_nat c :: cols) -> Forall (fun e => (Z.of_nat c < Z.of_N e)%Z) ext ->
      fuel_ok F (ez y R) c -> scanned_l F s (length ext) (etoks y) R (N.of_nat c :: cols) (Z.of_nat c).

  (* the entry before ends with a word; each further entry stands on a line of its own, so that word is followed by a line
     break and the scanner comes to the first character of the entry *)
  Lemma entries_more : forall r s pend T1 R, Forall entry_ok r -> fuel_ok F (morez ez c r R) c ->
    scanned_l F s pend T1 (morez ez c r R) (N.of_nat c :: cols) (Z.of_nat c) ->
    scanned_l F s pend (T1 ++ flat_map etoks r) R (N.of_nat c :: cols) (Z.of_nat c).
  Proof.
    induction r as [|y r IH]; intros s pend T1 R Hok Hfuel H.
    - cbn [flat_map]. rewrite app_nil_r. exact H.
    - inversion Hok as [|? ? (Hfirst & Hlen & Hy) Hr]; subst. cbn [morez fold_right] in H, Hfuel. fold (morez ez c r R) in H, Hfuel.
      unfold fuel_ok in Hfuel. lens Hfuel. pose proof (Hlen (morez ez c r R)) as Hl.
      cbn [flat_map]. apply (scanned_app_l F s pend T1 _ (ez y (morez ez c r R)) c).
      + apply line_of_last; [exact H | apply Hfirst | lia | lia].
      + intros s2 ext1 Hat2 Hf2. apply IH; [exact Hr | unfold fuel_ok; lia |].
        apply Hy; [exact Hat2 | exact Hf2 | unfold fuel_ok; lia].
  Qed.
End Entries.

Lemma itemz_length c x R : (length R <= length (itemz c x R))%nat.
Proof. unfold itemz. cbn [length]. rewrite app_length, brz_length. lia. Qed.
Lemma pairz_length c p R : (length R <= length (pairz c p R))%nat.
Proof. unfold pairz. rewrite app_length. cbn [length]. rewrite app_length, brz_length. lia. Qed.

Lemma pair_line_first k z : key_ok k = true -> line_first (k ++ z).
Proof.
  intros Hk. destruct (key_ok_word _ Hk) as (c0 & w & E & Hw & _). rewrite E. cbn [app line_first].
  cbn [forallb] in Hw. apply andb_prop in Hw as [Hc0 _]. destruct (first_char_facts c0 (or_intror Hc0)) as ((H32 & H9 & _) & Hbr & _).
  split; [unfold is_blank; rewrite H32, H9; reflexivity | exact Hbr].
Qed.

Lemma seq_entries_ok F c cols xs :
  Forall (fun y => bwf true y = true /\ LastOK y) xs -> (forall y, In y xs -> (S (length cols) + bdepth y <= 255)%nat) ->
  Forall (entry_ok (itemz c) item_toks F c cols) xs.
Proof.
  intros Hok Hdep. rewrite Forall_forall in *. intros y Hy. destruct (Hok y Hy) as [Hwf Hl].
  split; [intros R; split; reflexivity|]. split; [apply itemz_length|]. intros s ext R Hat Hext Hfuel.
  exact (seq_entry F s y c ext (N.of_nat c :: cols) false R (or_introl Hat) Hext (ex_intro _ cols eq_refl) Hwf Hl (Hdep y Hy) Hfuel).
Qed.

Lemma last_seq pl x xs : Forall (fun y => bwf true y = true /\ LastOK y) (x :: xs) -> LastScan (BS pl (x :: xs)).
Proof.
  intros Hok F cc cols s R Harr Htop Hdep Hfuel.
  inversion Hok as [|? ? [Hwf Hx] Hxs]; subst.
  change (brz cc (BS pl (x :: xs)) R) with (itemz cc x (morez (itemz cc) cc xs R)) in Harr, Hfuel.
  assert (Hlen : (length cols < 255)%nat) by (cbn [bdepth] in Hdep; lia).
  assert (Hdep' : forall y, In y (x :: xs) -> (S (length cols) + bdepth y <= 255)%nat).
  { intros y Hy. pose proof (bdepth_in (x :: xs) y Hy). cbn [bdepth] in Hdep. lia. }
  pose proof (itemz_length cc x (morez (itemz cc) cc xs R)) as Hl.
  apply (entries_more (itemz cc) item_toks F cc cols xs s 0 (TBlockSequenceStart :: item_toks x) R);
    [apply seq_entries_ok; [exact Hxs | intros y Hy; apply Hdep'; right; exact Hy] | unfold fuel_ok in *; lia |].
  destruct Harr as [Hat | Hbel].
  - exact (seq_entry F s x cc [] cols true _ (or_introl Hat) ltac:(constructor) (top_lt_joins cols cc Htop Hlen) Hwf Hx
             (Hdep' x (or_introl eq_refl)) Hfuel).
  - destruct (at_below_cols _ _ _ Hbel) as (top & rest0 & ->).
    destruct (dash_item_below_z F s _ _ cc top rest0 Hbel (dash_ok_lead cc x _ Hwf) ltac:(unfold top_lt in Htop; cbn in Htop; lia) Hlen
                ltac:(unfold fuel_ok in Hfuel; lia)) as (t1 & s1 & Hd1 & Hm1 & Had).
    change (TBlockSequenceStart :: item_toks x) with ([TBlockSequenceStart; TBlockEntry] ++ tokens_of (blt x)).
    eapply scanned_head_l; [exact Hd1 | exact Hm1 |].
    apply seq_child; [exact Had | exact Hwf | exact Hx | apply Hdep'; left; reflexivity | exact Hfuel].
Qed.

(* the first "-" is reached from behind "key:" NL; then as for any sequence *)
Lemma last_iseq x xs : Forall (fun y => bwf true y = true /\ LastOK y) (x :: xs) -> ILast (x :: xs).
Proof.
  intros Hok F c cols s R Hbel Hdep Hfuel.
  inversion Hok as [|? ? [Hwf Hx] Hxs]; subst.
  change (brz c (BI (x :: xs)) R) with (itemz c x (morez (itemz c) c xs R)) in Hbel, Hfuel.
  assert (Hdep' : forall y, In y (x :: xs) -> (S (length cols) + bdepth y <= 255)%nat).
  { intros y Hy. pose proof (bdepth_in (x :: xs) y Hy). cbn [bdepth] in Hdep. lia. }
  pose proof (itemz_length c x (morez (itemz c) c xs R)) as Hl.
  apply (entries_more (itemz c) item_toks F c cols xs s 0 (item_toks x) R);
    [apply seq_entries_ok; [exact Hxs | intros y Hy; apply Hdep'; right; exact Hy] | unfold fuel_ok in *; lia |].
  exact (seq_entry F s x c [] (N.of_nat c :: cols) false _ (or_intror (ex_intro _ cols (conj eq_refl Hbel))) ltac:(constructor)
           (ex_intro _ cols eq_refl) Hwf Hx (Hdep' x (or_introl eq_refl)) Hfuel).
Qed.

Lemma last_map pl p ps : Forall (fun q => key_ok (fst q) = true /\ bwf false (snd q) = true /\ LastOK (snd q)) (p :: ps) ->
  LastScan (BM pl (p :: ps)).
Proof.
  intros Hok F cc cols s R Harr Htop Hdep Hfuel.
  inversion Hok as [|? ? (Hk & Hwf & Hv) Hps]; subst.
  change (brz cc (BM pl (p :: ps)) R) with (pairz cc p (morez (pairz cc) cc ps R)) in Harr, Hfuel.
  assert (Hlen : (length cols < 255)%nat) by (cbn [bdepth] in Hdep; lia).
  assert (Hdep' : forall q, In q (p :: ps) -> (S (length cols) + bdepth (snd q) <= 255)%nat).
  { intros q Hq. pose proof (bdepth_pair pl (p :: ps) q Hq). lia. }
  pose proof (pairz_length cc p (morez (pairz cc) cc ps R)) as Hl.
  apply (entries_more (pairz cc) pair_toks F cc cols ps s 0 (TBlockMappingStart :: pair_toks p) R); [ | unfold fuel_ok in *; lia | ].
  - rewrite Forall_forall in *. intros q Hq. destruct (Hps q Hq) as (Hkq & Hwq & Hvq).
    split; [intros R'; apply pair_line_first, Hkq|]. split; [apply pairz_length|]. intros s' ext R' Hat Hext Hfuel'.
    exact (map_entry F s' q cc ext (N.of_nat cc :: cols) false R' Hat Hext (ex_intro _ cols eq_refl) Hkq Hwq Hvq (Hdep' q (or_intror Hq)) Hfuel').
  - destruct Harr as [Hat | Hbel].
    + exact (map_entry F s p cc [] cols true _ Hat ltac:(constructor) (top_lt_joins cols cc Htop Hlen) Hk Hwf Hv
               (Hdep' p (or_introl eq_refl)) Hfuel).
    + destruct (at_below_cols _ _ _ Hbel) as (top & rest0 & ->).
      set (R1 := morez (pairz cc) cc ps R) in *. unfold fuel_ok, pairz in Hfuel. lens Hfuel.
      destruct (key_item_below_z F s (fst p) (snd p) cc top rest0 _ Hbel Hk ltac:(unfold top_lt in Htop; cbn in Htop; lia) Hlen
                  ltac:(lia) ltac:(lia)) as (t1 & s1 & Hd1 & Hm1 & Hab).
      change (TBlockMappingStart :: pair_toks p) with (key_toks true (fst p) ++ tokens_of (blt (snd p))).
      eapply scanned_head_l; [exact Hd1 | exact Hm1 |].
      apply map_child; [exact Hab | exact Hwf | exact Hv | exact (Hdep' _ (or_introl eq_refl)) |].
      unfold fuel_ok. lensg. lia.
Qed.

Theorem last_ok : forall n inl, bwf inl n = true -> LastOK n.
Proof.
  apply (bnode_ind2 (fun n => forall inl, bwf inl n = true -> LastOK n)).
  - intros w inl H. split; [discriminate|intros items [=]].
  - intros pl items IH inl H. split; [|intros items' [=]]. intros _.
    cbn [bwf] in H. apply andb_prop in H as [H Hall]. apply andb_prop in H as [_ Hne].
    destruct items as [|x xs]; [discriminate|]. apply last_seq.
    rewrite Forall_forall in *. rewrite forallb_forall in Hall. intros y Hy. split; [exact (Hall y Hy) | exact (IH y Hy true (Hall y Hy))].
  - intros pl pairs IH inl H. split; [|intros items' [=]]. intros _.
    cbn [bwf] in H. apply andb_prop in H as [H Hall]. apply andb_prop in H as [_ Hne].
    destruct pairs as [|p ps]; [discriminate|]. apply last_map.
    rewrite Forall_forall in *. rewrite forallb_forall in Hall. intros q Hq. specialize (Hall q Hq). apply andb_prop in Hall as [Hk Hv].
    split; [exact Hk|]. split; [exact Hv | exact (IH q Hq false Hv)].
  - intros items IH inl H. split; [discriminate|]. intros items' [= <-].
    cbn [bwf] in H. apply andb_prop in H as [H Hall]. apply andb_prop in H as [_ Hne].
    destruct items as [|x xs]; [discriminate|]. apply last_iseq.
    rewrite Forall_forall in *. rewrite forallb_forall in Hall. intros y Hy. split; [exact (Hall y Hy) | exact (IH y Hy true (Hall y Hy))].
Qed.

(* every collection followed by a line *)
(* an indentless sequence (see [ILast]) followed by a line *)
Definition IScan (items : list bnode) : Prop :=
  forall F c cols s c' tl,
    at_below s (10 :: repeat 32 c ++ brender c (BI items) ++ repeat 32 c' ++ tl) (N.of_nat c :: cols) ->
    (S (length cols) + bdepth (BI items) <= 255)%nat ->
    line_first tl -> (c' <= c)%nat -> fuel_ok F (brender c (BI items) ++ repeat 32 c' ++ tl) c ->
    scanned_b F s 0 (tokens_of (blt (BI items))) tl c' (N.of_nat c :: cols) (Z.of_nat c).

(* the premise of [coll_seq] / [coll_map] on a child; only its first component is used there, the other two follow
   from it ([coll_scan_all], [iscan_all]) *)
Definition ChildOK (inl : bool) (x : bnode) : Prop :=
  bwf inl x = true /\ (b_is_coll x = true -> CollScan x) /\ (forall items, x = BI items -> IScan items).
Definition PairOK (p : str * bnode) : Prop := key_ok (fst p) = true /\ ChildOK false (snd p).

Lemma coll_of_last X inl : bwf inl X = true -> b_is_coll X = true -> LastScan X -> CollScan X.
Proof.
  intros Hwf Hc HL F cc cols s c' tl Harr Htop Hdep Htl Hc' Hfuel.
  rewrite (brender_brz X inl cc _ Hwf) in Harr, Hfuel.
  pose proof (line_of_last F s 0 _ c' tl cc cols (HL F cc cols s _ Harr Htop Hdep Hfuel) Htl Hc' ltac:(unfold fuel_ok in Hfuel; lia)) as H.
  rewrite (tokens_open X Hc). destruct X as [w|pl items|pl pairs|items]; try discriminate; exact (scanned_close F s _ _ tl c' cc cols Htop H).
Qed.

Theorem coll_scan_all : forall n inl, bwf inl n = true -> b_is_coll n = true -> CollScan n.
Proof. intros n inl H Hc. exact (coll_of_last n inl H Hc (proj1 (last_ok n inl H) Hc)). Qed.

Theorem iscan_all : forall items, bwf false (BI items) = true -> IScan items.
Proof.
  intros items Hwf F c cols s c' tl Hbel Hdep Htl Hc' Hfuel.
  rewrite (brender_brz (BI items) false c _ Hwf) in Hbel, Hfuel. rewrite tokens_BI.
  apply line_of_last; [ | exact Htl | exact Hc' | unfold fuel_ok in Hfuel; lia].
  exact (proj2 (last_ok _ false Hwf) items eq_refl F c cols s _ Hbel Hdep Hfuel).
Qed.

Lemma coll_seq pl x xs : Forall (ChildOK true) (x :: xs) -> CollScan (BS pl (x :: xs)).
Proof.
  intros Hok. apply (coll_scan_all _ true); [|reflexivity].
  cbn [bwf place_ok]. destruct pl; apply forallb_forall; intros y Hy; rewrite Forall_forall in Hok; exact (proj1 (Hok y Hy)).
Qed.

Lemma coll_map pl p ps : Forall PairOK (p :: ps) -> CollScan (BM pl (p :: ps)).
Proof.
  intros Hok. apply (coll_scan_all _ true); [|reflexivity].
  cbn [bwf place_ok]. destruct pl; apply forallb_forall; intros q Hq; rewrite Forall_forall in Hok; destruct (Hok q Hq) as [Hk [Hv _]];
    rewrite Hk, Hv; reflexivity.
Qed.

Lemma pair_text_len c p :
  length (pair_text c p) = (length (fst p) + S (length (lead c (snd p)) + length (brender (child_col c (snd p)) (snd p))))%nat.
Proof. unfold pair_text. rewrite app_length. cbn [length]. rewrite app_length. reflexivity. Qed.

(* the end of the input *)
Lemma split_cols cols : exists ext base, cols = ext ++ base /\ Forall (fun e => (Z.of_nat 0 < Z.of_N e)%Z) ext /\ base_le base (Z.of_nat 0).
Proof.
  induction cols as [|c r IH].
  - exists [], []. repeat split; [constructor | cbn; lia].
  - destruct (N.ltb 0 c) eqn:E.
    + destruct IH as (ext & base & -> & H1 & H2). exists (c :: ext), base. repeat split; [|exact H2].
      constructor; [apply N.ltb_lt in E; lia | exact H1].
    + exists [], (c :: r). repeat split; [constructor|]. cbn. apply N.ltb_ge in E. lia.
Qed.

Lemma need_none cs l mk t q adj ska k ind inds tp ta lws : sk_possible k = false ->
  need_comp (mkb cs l mk (t :: q) adj ska k ind inds tp ta lws) = Ok (false, mkb cs l mk (t :: q) adj ska k ind inds tp ta lws).
Proof.
  intros Hk. rewrite need_b by (rewrite (stale_k_not_possible _ _ Hk); reflexivity).
  cbn zeta. rewrite (stale_k_not_possible _ _ Hk), Hk. reflexivity.
Qed.

Lemma end_pop F cs l mk sp adj ska k ind inds tp lws acc fuel : (1 <= F)%nat -> sk_possible k = false ->
  scan_all str_ops F (S (S fuel)) (mkb cs l mk [(sp, TStreamEnd)] adj ska k ind inds tp false lws) acc
  = (rev ((sp, TStreamEnd) :: acc), SEnded).
Proof.
  intros HF Hk. destruct F as [|F']; [lia|].
  rewrite scan_all_S, (nt_ntb (S F') (S F')) by reflexivity.
  erewrite ntb_pop; [| reflexivity | apply need_none; exact Hk].
  unfold popk, mkb. cbn. rewrite scan_all_S. unfold next_token. cbn. reflexivity.
Qed.

(* next_token of [s] is that of a state whose queue ends with StreamEnd and in which no key is possible (a fetch or two
   away, say): everything queued is handed out and the scanner has ended *)
Lemma end_scan F (s : sc strin) cs l mk ts m adj ska k ind inds tp lws :
  (1 <= F)%nat ->
  (forall r, ntb F 1 (mkb cs l mk (ts ++ [se_tok m]) adj ska k ind inds tp false lws) = Ok r -> next_token str_ops F s = Ok r) ->
  no_se ts -> sk_possible k = false ->
  forall fuel acc, (length ts + 1 < fuel)%nat -> scan_all str_ops F fuel s acc = (rev acc ++ ts ++ [se_tok m], SEnded).
Proof.
  intros HF Hnt Hts Hk fuel acc Hfuel.
  destruct ts as [|t ts'].
  - destruct fuel as [|[|fuel]]; [cbn in Hfuel; lia | cbn in Hfuel; lia |]. cbn [app].
    rewrite scan_all_S.
    rewrite (Hnt (Some (se_tok m), set_se true (mkb cs l mk [] adj ska k ind inds (tp + 1) false lws))).
    + rewrite scan_all_S. unfold next_token. cbn. reflexivity.
    + cbn [app]. erewrite ntb_pop; [| reflexivity | apply need_none; exact Hk]. reflexivity.
  - inversion Hts as [|? ? Ht Hts']; subst.
    assert (E1 : next_token str_ops F s = Ok (Some t, mkb cs l mk (ts' ++ [se_tok m]) adj ska k ind inds (tp + 1) false lws)).
    { apply Hnt. cbn [app]. rewrite <- (staled_not_possible k mk Hk) at 2.
      apply ntb_pop_b; [exact Ht | rewrite (stale_k_not_possible _ _ Hk); reflexivity | rewrite (staled_not_possible k mk Hk), Hk; reflexivity]. }
    pose proof (drain_b_r F ts' cs l mk [se_tok m] adj ska k ind inds (tp + 1) lws HF Hts' Hk) as D.
    pose proof (delivers_trans F _ [t] _ ts' _ (delivers_one F _ _ t E1) D) as D2.
    assert (Ef : exists f2, fuel = (length ([t] ++ ts') + S (S f2))%nat).
    { exists (fuel - length ([t] ++ ts') - 2)%nat. cbn [length app] in *. lia. }
    destruct Ef as (f2 & ->). rewrite D2. unfold se_tok. rewrite end_pop by assumption.
    cbn [rev app]. rewrite !rev_app_distr, rev_involutive. cbn [rev app]. rewrite <- !app_assoc. reflexivity.
Qed.

Lemma stream_end_all F s cols : at_tok s [] 0 cols -> (3 <= F)%nat ->
  exists toks, map snd toks = repeat TBlockEnd (length cols) ++ [TStreamEnd] /\
    forall fuel acc, (length toks < fuel)%nat -> scan_all str_ops F fuel s acc = (rev acc ++ toks, SEnded).
Proof.
  intros (l & i & ln & adj & k & tp & lws & -> & Hk) HF.
  destruct (key_done_stale k i ln (N.of_nat 0) Hk) as [Hst Hnp].
  destruct (split_cols cols) as (ext & base & -> & Hext & Hbase).
  set (m := mkm i ln (N.of_nat 0)) in *.
  assert (Hf : exists l', fetch_next_token str_ops F (mkb [] l m [] adj true k (fst (stk (ext ++ base))) (snd (stk (ext ++ base))) tp false lws)
               = Ok (tt, mkb [] l' m (((repeat (be_tok m) (length ext)) ++ repeat (be_tok m) (length base)) ++ [se_tok m]) adj false
                           (unposs (staled k m)) (fst (stk [])) (snd (stk [])) tp false lws)).
  { eexists. erewrite fnt_b; [ | apply skip_eof; lia | exact Hst
                               | cbn [m_col mkm m]; rewrite nat_N_Z; apply unroll_stk; [exact Hext | exact Hbase | rewrite stk_len, app_length; lia] ].
    cbn [app]. rewrite tail_eof. unfold m. cbn [N.of_nat].
    apply (stream_end_b _ i ln); [fold m; change 0 with (N.of_nat 0); fold m; rewrite Hnp; apply andb_false_r|].
    pose proof (unroll_stk base [] (-1)%Z (S (length (snd (stk base))))) as U. rewrite app_nil_r in U. apply U; [|cbn; lia|rewrite stk_len; lia].
    apply Forall_forall. intros e _. lia. }
  destruct Hf as (l' & Hf).
  set (bes := repeat (be_tok m) (length ext) ++ repeat (be_tok m) (length base)) in *.
  exists (bes ++ [se_tok m]). split.
  - unfold bes. rewrite !map_app, !map_snd_be, <- repeat_app, <- app_length. reflexivity.
  - intros fuel acc Hfuel. rewrite app_length in Hfuel. cbn [length] in Hfuel.
    apply (end_scan F _ [] l' m bes m adj false (unposs (staled k m)) (fst (stk [])) (snd (stk [])) tp lws);
      [lia | | apply no_se_app; apply no_se_be | reflexivity | exact Hfuel].
    intros r Hr. apply (nt_of_ntb F 2); [reflexivity | lia |].
    erewrite ntb_fetch; [exact Hr | reflexivity | apply need_empty_b | exact Hf | reflexivity].
Qed.

(* at most two tokens per character *)
Lemma bjoin_length c (l : list str) : (length (concat l) <= length (bjoin c l))%nat.
Proof.
  destruct l as [|x r]; cbn [bjoin concat length]; [lia|]. rewrite !app_length.
  enough (length (concat r) <= length (flat_map (fun y => spaces c ++ y) r))%nat by lia.
  induction r as [|y r IH]; cbn [concat flat_map length]; [lia|]. rewrite !app_length. lia.
Qed.
Lemma lead_length c x : (1 <= length (lead c x))%nat.
Proof. destruct x as [w|[d|] items|[d|] pairs|items]; cbn [lead length]; lia. Qed.

Lemma items_sum (P : bnode -> Prop) c items :
  (forall x, P x -> bwf true x = true -> (length (tokens_of (blt x)) <= 2 * length (brender (child_col c x) x))%nat) ->
  Forall P items -> forallb (bwf true) items = true ->
  (length (flat_map item_toks items) + 3 * length items <= 2 * length (concat (map (item_text c) items)))%nat.
Proof.
  intros HP IH Hall. induction items as [|x r IHr]; [cbn; lia|].
  inversion IH as [|? ? Hx Hr]; subst. cbn [forallb] in Hall. apply andb_prop in Hall as [Hwx Hwr].
  cbn [flat_map map concat length]. rewrite !app_length. unfold item_toks at 1. unfold item_text at 1. cbn [length]. rewrite app_length.
  specialize (IHr Hr Hwr). pose proof (HP x Hx Hwx). pose proof (lead_length c x). lia.
Qed.

Definition TokLe (n : bnode) : Prop := forall inl c, bwf inl n = true -> (length (tokens_of (blt n)) <= 2 * length (brender c n))%nat.
Lemma toks_le_text n : TokLe n.
Proof.
  revert n. apply (bnode_ind2 TokLe).
  - intros w inl c _. cbn. rewrite app_length. cbn [length]. lia.
  - intros pl items IH inl c H. cbn [bwf] in H. apply andb_prop in H as [H Hall]. apply andb_prop in H as [_ Hne].
    rewrite tokens_BS. change (brender c (BS pl items)) with (bjoin c (map (item_text c) items)).
    cbn [length]. rewrite app_length. cbn [length].
    pose proof (bjoin_length c (map (item_text c) items)) as HJ.
    pose proof (items_sum TokLe c items (fun x (Hx : TokLe x) Hw => Hx true (child_col c x) Hw) IH Hall) as Hsum.
    destruct items as [|x r]; [discriminate|]. cbn [length] in Hsum. unfold str in *. lia.
  - intros pl pairs IH inl c H. cbn [bwf] in H. apply andb_prop in H as [H Hall]. apply andb_prop in H as [_ Hne].
    rewrite tokens_BM. change (brender c (BM pl pairs)) with (bjoin c (map (pair_text c) pairs)).
    cbn [length]. rewrite app_length. cbn [length].
    pose proof (bjoin_length c (map (pair_text c) pairs)) as HJ.
    assert (Hsum : (length (flat_map pair_toks pairs) + 3 * length pairs <= 2 * length (concat (map (pair_text c) pairs)))%nat).
    { clear HJ Hne. induction pairs as [|x r IHr]; [cbn; lia|].
      inversion IH as [|? ? Hx Hr]; subst. cbn [forallb] in Hall. apply andb_prop in Hall as [Hwx Hwr]. apply andb_prop in Hwx as [Hk Hwx].
      cbn [flat_map map concat length]. rewrite !app_length. unfold pair_toks at 1. rewrite pair_text_len. cbn [length app].
      specialize (IHr Hr Hwr). specialize (Hx false (child_col c (snd x)) Hwx). pose proof (lead_length c (snd x)).
      destruct (key_ok_word _ Hk) as (c0 & w & E & _). rewrite E. cbn [length]. lia. }
    destruct pairs as [|x r]; [discriminate|]. cbn [length] in Hsum. unfold str in *. lia.
  - intros items IH inl c H. cbn [bwf] in H. apply andb_prop in H as [H Hall]. apply andb_prop in H as [_ Hne].
    rewrite tokens_BI. change (brender c (BI items)) with (bjoin c (map (item_text c) items)).
    pose proof (bjoin_length c (map (item_text c) items)) as HJ.
    pose proof (items_sum TokLe c items (fun x (Hx : TokLe x) Hw => Hx true (child_col c x) Hw) IH Hall) as Hsum.
    unfold str in *. lia.
Qed.

(* the whole scanner on a document of the sub-language *)
Theorem scan_block n : bwf_root n = true -> (bdepth n <= 255)%nat ->
  exists toks, scan_str (bdoc_text n) = (toks, SEnded) /\ map snd toks = wrap false false (tokens_of (blt n)).
Proof.
  intros Hroot Hdep. unfold bwf_root in Hroot. apply andb_prop in Hroot as [Hcoll Hwf].
  pose proof (coll_scan_all n true Hwf Hcoll) as HC.
  unfold scan_str, bdoc_text. set (txt := brender 0 n).
  remember (2 * length txt + 10)%nat as F eqn:HF.
  set (S1 := mkb txt 1 (mkm 0 1 0) [] 0 true dummy_key (-1)%Z [] 1 false true).
  assert (Hat : at_tok S1 (brender 0 n ++ repeat 32 0 ++ []) 0 []).
  { cbn [repeat app]. rewrite app_nil_r. exists 1%nat, 0, 1, 0, dummy_key, 1, true. split; [reflexivity|left; reflexivity]. }
  destruct (HC F 0%nat [] S1 0%nat [] (or_introl Hat) ltac:(unfold top_lt; cbn; lia) ltac:(cbn [length]; lia) I ltac:(lia)
              ltac:(unfold fuel_ok; cbn [repeat app]; rewrite app_nil_r; fold txt; lia))
    as (toks & s' & ext' & Hd & He & Hat' & _).
  destruct (stream_end_all F s' (ext' ++ []) Hat' ltac:(lia)) as (toks2 & Hm2 & Hscan).
  cbn [repeat app] in He.
  pose proof (toks_le_text n true 0%nat Hwf) as Hlen. fold txt in Hlen.
  assert (Hl1 : (length toks + length ext' = length (tokens_of (blt n)))%nat).
  { rewrite He, app_length, map_length, repeat_length. reflexivity. }
  assert (Hl2 : length toks2 = S (length ext')).
  { rewrite <- (map_length snd toks2), Hm2, app_length, repeat_length, app_nil_r. cbn [length]. lia. }
  assert (Etot : exists f2, (4 * F + 20 = S (length toks + f2) /\ length toks2 < f2)%nat).
  { exists (4 * F + 19 - length toks)%nat. lia. }
  destruct Etot as (f2 & -> & Hf2).
  rewrite scan_all_S, (first_token F txt) by lia. cbv beta iota.
  change (mkst txt 1 (mk1 0) [] 0 true [dummy_key] 0 1 false true []) with S1.
  rewrite Hd, (Hscan f2 _ Hf2).
  eexists. split; [reflexivity|].
  rewrite rev_app_distr, rev_involutive. cbn [rev app map snd]. rewrite map_app.
  unfold wrap. cbn [flag app]. f_equal. rewrite He, <- app_assoc. f_equal.
  rewrite app_nil_r in Hm2. exact Hm2.
Qed.

(* text -> events: the scanner theorem composed with the parser theorem *)
Require Import TokenGrammarProofs TokenStreamProofs.

(* where the layout tree may stand: an indentless sequence only as the value of a block-mapping entry *)
Lemma blt_wf : forall n inl, bwf inl n = true -> wf true (negb inl) (blt n) = true.
Proof.
  apply (bnode_ind2 (fun n => forall inl, bwf inl n = true -> wf true (negb inl) (blt n) = true)).
  - intros w inl _. reflexivity.
  - intros pl items IH inl H. cbn [bwf] in H. apply andb_prop in H as [_ Hall].
    cbn [blt wf andb]. rewrite forallb_map. apply forallb_forall. intros x Hx.
    rewrite Forall_forall in IH. rewrite forallb_forall in Hall. pose proof (IH x Hx true (Hall x Hx)) as E. cbn [negb] in E. rewrite E. apply orb_true_r.
  - intros pl pairs IH inl H. cbn [bwf] in H. apply andb_prop in H as [_ Hall].
    cbn [blt wf andb]. apply andb_true_intro. split.
    + rewrite forallb_map. apply forallb_forall. intros p Hp. rewrite Forall_forall in IH. rewrite forallb_forall in Hall.
      specialize (Hall p Hp). apply andb_prop in Hall as [_ Hv].
      pose proof (IH p Hp false Hv) as E. cbn [negb] in E. cbn [ent_wf lword is_none wf orb andb]. rewrite E. rewrite orb_true_r. reflexivity.
    + clear IH Hall. induction pairs as [|p r IHr]; [reflexivity|]. cbn [map adj_ok]. destruct r as [|p2 r2]; [reflexivity|].
      cbn [map]. cbn [map] in IHr. rewrite IHr. reflexivity.
  - intros items IH inl H. cbn [bwf] in H. apply andb_prop in H as [H Hall]. apply andb_prop in H as [Hinl Hne].
    destruct inl; [discriminate|]. cbn [blt wf andb negb]. apply andb_true_intro. split.
    + destruct items; [discriminate|reflexivity].
    + rewrite forallb_map. apply forallb_forall. intros x Hx.
      rewrite Forall_forall in IH. rewrite forallb_forall in Hall. pose proof (IH x Hx true (Hall x Hx)) as E. cbn [negb] in E. rewrite E. apply orb_true_r.
Qed.

Lemma blt_plain : forall n, forallb plain_pev (pre_events (blt n)) = true.
Proof.
  apply bnode_ind2.
  - intros w. reflexivity.
  - intros pl items IH. cbn [blt pre_events forallb plain_pev no_props pr_anchor pr_tag andb]. rewrite forallb_app. cbn [forallb plain_pev]. rewrite andb_true_r.
    rewrite forallb_flat_map, forallb_map. apply forallb_forall. intros x Hx. rewrite Forall_forall in IH. exact (IH x Hx).
  - intros pl pairs IH. cbn [blt pre_events forallb plain_pev no_props pr_anchor pr_tag andb]. rewrite forallb_app. cbn [forallb plain_pev]. rewrite andb_true_r.
    rewrite forallb_flat_map, forallb_map. apply forallb_forall. intros p Hp. rewrite Forall_forall in IH. specialize (IH p Hp).
    cbn [ent_pre pre_events lword no_props pr_anchor pr_tag app forallb plain_pev andb]. exact IH.
  - intros items IH. cbn [blt pre_events forallb plain_pev no_props pr_anchor pr_tag andb]. rewrite forallb_app. cbn [forallb plain_pev]. rewrite andb_true_r.
    rewrite forallb_flat_map, forallb_map. apply forallb_forall. intros x Hx. rewrite Forall_forall in IH. exact (IH x Hx).
Qed.

(* at most one event per token, plus one per indentless sequence; in any case at most two per character *)
Lemma items_ev_sum (P : bnode -> Prop) c items :
  (forall x, P x -> bwf true x = true -> (length (pre_events (blt x)) <= 2 * length (brender (child_col c x) x))%nat) ->
  Forall P items -> forallb (bwf true) items = true ->
  (length (flat_map pre_events (map blt items)) + 4 * length items <= 2 * length (concat (map (item_text c) items)))%nat.
Proof.
  intros HP IH Hall. induction items as [|x r IHr]; [cbn; lia|].
  inversion IH as [|? ? Hx Hr]; subst. cbn [forallb] in Hall. apply andb_prop in Hall as [Hwx Hwr].
  cbn [flat_map map concat length]. rewrite !app_length. unfold item_text at 1. cbn [length]. rewrite app_length.
  specialize (IHr Hr Hwr). pose proof (HP x Hx Hwx). pose proof (lead_length c x). lia.
Qed.

Definition EvLe (n : bnode) : Prop := forall inl c, bwf inl n = true -> (length (pre_events (blt n)) <= 2 * length (brender c n))%nat.
Lemma events_le_text n : EvLe n.
Proof.
  revert n. apply (bnode_ind2 EvLe).
  - intros w inl c _. cbn. rewrite app_length. cbn [length]. lia.
  - intros pl items IH inl c H. cbn [bwf] in H. apply andb_prop in H as [H Hall]. apply andb_prop in H as [_ Hne].
    change (brender c (BS pl items)) with (bjoin c (map (item_text c) items)).
    cbn [blt pre_events length]. rewrite app_length. cbn [length].
    pose proof (bjoin_length c (map (item_text c) items)) as HJ.
    pose proof (items_ev_sum EvLe c items (fun x (Hx : EvLe x) Hw => Hx true (child_col c x) Hw) IH Hall) as Hsum.
    destruct items as [|x r]; [discriminate|]. cbn [length] in Hsum. unfold str in *. lia.
  - intros pl pairs IH inl c H. cbn [bwf] in H. apply andb_prop in H as [H Hall]. apply andb_prop in H as [_ Hne].
    change (brender c (BM pl pairs)) with (bjoin c (map (pair_text c) pairs)).
    cbn [blt pre_events length]. rewrite app_length. cbn [length].
    pose proof (bjoin_length c (map (pair_text c) pairs)) as HJ.
    assert (Hsum : (length (flat_map (ent_pre pre_events) (map (fun p : str * bnode => (true, lword (fst p), (true, blt (snd p)))) pairs)) + 4 * length pairs
                    <= 2 * length (concat (map (pair_text c) pairs)))%nat).
    { clear HJ Hne. induction pairs as [|x r IHr]; [cbn; lia|].
      inversion IH as [|? ? Hx Hr]; subst. cbn [forallb] in Hall. apply andb_prop in Hall as [Hwx Hwr]. apply andb_prop in Hwx as [Hk Hwx].
      cbn [flat_map map concat length]. rewrite !app_length. rewrite pair_text_len. cbn [ent_pre pre_events lword length app].
      specialize (IHr Hr Hwr). specialize (Hx false (child_col c (snd x)) Hwx). pose proof (lead_length c (snd x)).
      destruct (key_ok_word _ Hk) as (c0 & w & E & _). rewrite E. cbn [length]. lia. }
    destruct pairs as [|x r]; [discriminate|]. cbn [length] in Hsum. unfold str in *. lia.
  - intros items IH inl c H. cbn [bwf] in H. apply andb_prop in H as [H Hall]. apply andb_prop in H as [_ Hne].
    change (brender c (BI items)) with (bjoin c (map (item_text c) items)).
    cbn [blt pre_events length]. rewrite app_length. cbn [length].
    pose proof (bjoin_length c (map (item_text c) items)) as HJ.
    pose proof (items_ev_sum EvLe c items (fun x (Hx : EvLe x) Hw => Hx true (child_col c x) Hw) IH Hall) as Hsum.
    destruct items as [|x r]; [discriminate|]. cbn [length] in Hsum. unfold str in *. lia.
Qed.

Theorem run_block n : bwf_root n = true -> (bdepth n <= 255)%nat ->
  map fst (fst (run_str (bdoc_text n))) = wrap_events false (events_of (blt n)) /\ snd (run_str (bdoc_text n)) = PDone.
Proof.
  intros Hroot Hdep. destruct (scan_block n Hroot Hdep) as (toks & Es & Hm).
  destruct (run_str_scan (bdoc_text n)) as (fuel & Hfuel & ->). rewrite Es.
  unfold bwf_root in Hroot. apply andb_prop in Hroot as [Hcoll Hwf].
  apply (parse_wrap (blt n) false false toks false SEnded fuel); [ | | exact Hm | ].
  - unfold wf_root. pose proof (blt_wf n true Hwf) as W. cbn [negb] in W. destruct n; try discriminate; exact W.
  - apply bound_plain, blt_plain.
  - unfold wrap_events, events_of. cbn [length]. rewrite app_length, number_length. cbn [length].
    pose proof (events_le_text n true 0%nat Hwf). unfold bdoc_text in Hfuel. lia.
Qed.
