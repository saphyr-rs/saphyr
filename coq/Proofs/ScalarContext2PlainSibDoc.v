(* C04 in document context, a FOLLOWER behind a PLAIN scalar: the scalar (any allowed presentation, multi-line included) is
   the value of the first pair of a two-pair top-level mapping / the first entry of a two-entry top-level sequence; white
   space (spaces, line feeds) and a line feed separate it from the sibling line at column 0.  An instance of [ctx_scalar_sib]
   (Proofs/ScalarContext2BlockSib.v), on top of [scan_plain_scalar_sib]. *)
From Coq Require Import List NArith ZArith Bool Arith Lia.
Import ListNotations.
Require Import Parser SBase SPrim SFetch Pipe Drivers TokenGrammar FlowText ScanBlockProofs ScanFrame FlowFold PlainScalarProofs ScalarContext ScalarContextQuoted ScalarContextFlow ScalarContext2PlainDoc ScanPos ScanPosPlain ScalarContext2Pos ScalarContext2BlockSib ScalarContext2PlainSib.
Open Scope N_scope.
Open Scope mon_scope.

(* the text of a plain scalar, white space, a line feed, the sibling line *)
Definition ps_text (first : list N) (more : list (brk_layout * list N)) (ws sib : list N) : list N :=
  plain_render first more ++ ws ++ 10 :: sib.

Lemma ps_text_cons first more ws sib x t : first = x :: t -> ps_text first more ws sib = x :: t ++ src_more more ++ ws ++ 10 :: sib.
Proof. intros ->. unfold ps_text, plain_render. fold (src_more more). rewrite <- app_assoc. reflexivity. Qed.

Lemma first_ok_sib_head y : first_ok y -> (y =? 0) = false -> sib_head y.
Proof. intros (H32 & H9 & H10 & H13 & _) H0. unfold sib_head, is_blank, is_break. rewrite H32, H9, H10, H13. repeat split. exact H0. Qed.

(* [plain_side] inside a block collection: the effective indentation is at least 0, so the sibling line ends the scalar *)
Definition plain_side_in (n : nat) (ind : Z) (inds : list indent_rec) (col : N) : Prop :=
  (Z.of_N col <? ind)%Z = false /\ (0 <= fst (unroll_nb inds ind))%Z /\ (fst (unroll_nb inds ind) < Z.of_nat n)%Z
  /\ (fst (unroll_nb inds ind) < Z.of_N col)%Z.

Lemma plain_fetches_pos F n first more ws y r :
  p_wf n first more = true -> ws_only ws = true -> first_ok y -> (y =? 0) = false ->
  (2 * length (ps_text first more ws (y :: r)) + 10 <= F)%nat ->
  fetches_pos F (ps_text first more ws (y :: r)) (y :: r) (p_tok first more) (plain_side_in n).
Proof.
  intros Hwf Hws Hy Hy0 HF l mk q adj ska k ind inds tp lws orig pre0 Hl (Hcol & Hi0 & Hn & Hlt) Hreq Hnn (Eo & Hidx & Hpos).
  destruct (plain_first_facts n first more Hwf) as (x & t & Efirst & _ & Hhd).
  rewrite (rest_plain_s F (mkb (ps_text first more ws (y :: r)) l mk q adj ska k ind inds tp false lws) x _
             (ps_text_cons first more ws (y :: r) x t Efirst) Hl eq_refl Hcol ltac:(cbn [sc_mark mkb]; intros Ec; exfalso; lia) (Hhd _)).
  set (S1 := mkb (ps_text first more ws (y :: r)) l mk q adj false (saved ska k ind inds tp q mk) ind inds tp false lws).
  destruct (scan_plain_scalar_sib F n first more ws y r S1 Hwf eq_refl eq_refl Hws (first_ok_sib_head y Hy Hy0) Hi0 Hn Hlt HF)
    as (sp & s' & E & _ & Hin & _ & Hska).
  destruct (frame_b _ _ _ _ _ _ _ _ _ _ _ _ s' (Fr_scan_plain_scalar str_ops F _ _ s' E))
    as (cs' & l' & mk' & ska' & lws' & ind' & inds' & -> & Hnb & _).
  cbn in Hin, Hska. subst cs' ska'.
  assert (HM1 : MarkAt orig pre0 S1) by (repeat split; assumption).
  pose proof (pos_scan_plain_scalar orig Hnn F S1 (ex_intro _ pre0 HM1)) as Hp.
  unfold swp in Hp. rewrite E in Hp. destruct Hp as (HM' & _).
  destruct (mark_behind_break orig pre0 S1 _ (pre0 ++ plain_render first more ++ ws) 0 (y :: r) HM1 HM' eq_refl
              ltac:(rewrite Eo; unfold ps_text; cbn [rem sc_in si_chars mkb]; rewrite <- !app_assoc; reflexivity)
              (proj1 (proj2 (proj2 Hy))) ltac:(rewrite app_length; apply Nat.le_add_r)) as [Hc Hln].
  exists l', mk', sp, adj, lws', ind', inds'. split; [|split; [exact Hnb|split; [exact Hc|exact Hln]]].
  exact (fetch_scan_b _ push_tok false _ _ _ _ _ _ _ _ _ _ _ _ _ Hreq E).
Qed.

(* the first pair / entry holds the scalar; white space, a line feed, the sibling line *)
Lemma scan_plain_place_sib p kw2 n first more ws w tail :
  p <> Top -> place_ok p -> place_ok (sibling p kw2) -> p_wf n first more = true -> (1 <= n)%nat -> ws_only ws = true ->
  sib_wf w = true -> ws_only tail = true ->
  forallb (fun c => negb (c =? 0)) (in_place p (ps_text first more ws (in_place (sibling p kw2) (w ++ tail)))) = true ->
  exists toks, scan_str (in_place p (ps_text first more ws (in_place (sibling p kw2) (w ++ tail)))) = (toks, SEnded) /\
               map snd toks = wrap false false (around p (p_tok first more :: item (sibling p kw2) [TScalar Plain w])).
Proof.
  intros Hp Hok Hok2 Hwf Hn Hws Hw Htail Hnul.
  assert (Hp2 : sibling p kw2 <> Top) by (destruct p; [congruence|discriminate..]).
  destruct (in_place_head (sibling p kw2) (w ++ tail) Hp2 Hok2) as (y & r & Ey & Hy & Hy0).
  pose proof (plain_fetches_pos (2 * length (in_place p (ps_text first more ws (y :: r))) + 10) n first more ws y r Hwf Hws Hy Hy0
                ltac:(destruct p; cbn [in_place]; rewrite ?app_length; cbn [length]; lia)) as Hfe.
  rewrite <- Ey in Hfe. destruct (plain_first_facts n first more Hwf) as (x & t & Efirst & Hh & _).
  rewrite (ps_text_cons first more ws _ x t Efirst) in *.
  apply (ctx_scalar_sib p kw2 x _ (p_tok first more) (plain_side_in n) w tail Hp Hok Hok2 Hh ltac:(discriminate) Hw Htail);
    [|exact Hfe| |exact Hnul].
  - exists (x :: t ++ src_more more ++ ws ++ [10]). cbn [app]. rewrite <- !app_assoc. reflexivity.
  - unfold plain_side_in. destruct p; [congruence| |]; cbn [side_at]; [|intros c Hc]; (split; [apply Z.ltb_ge|repeat split]; cbn; lia).
Qed.

(* T-value with a sibling pair:  kw: <plain scalar> ws LF kw2: w tail *)
Theorem scan_plain_value_sib kw n first more ws kw2 w tail :
  key_ok kw = true -> p_wf n first more = true -> (1 <= n)%nat -> ws_only ws = true ->
  key_ok kw2 = true -> sib_wf w = true -> ws_only tail = true ->
  forallb (fun c => negb (c =? 0)) (kw ++ 58 :: 32 :: ps_text first more ws (kw2 ++ 58 :: 32 :: w ++ tail)) = true ->
  exists toks, scan_str (kw ++ 58 :: 32 :: ps_text first more ws (kw2 ++ 58 :: 32 :: w ++ tail)) = (toks, SEnded) /\
               map snd toks = wrap false false [TBlockMappingStart; TKey; TScalar Plain kw; TValue; p_tok first more;
                                                TKey; TScalar Plain kw2; TValue; TScalar Plain w; TBlockEnd].
Proof.
  intros Hkw Hwf Hn Hws Hkw2.
  exact (scan_plain_place_sib (Value kw) kw2 n first more ws w tail ltac:(discriminate) Hkw Hkw2 Hwf Hn Hws).
Qed.

(* T-entry with a sibling entry:  - <plain scalar> ws LF - w tail *)
Theorem scan_plain_entry_sib n first more ws w tail :
  p_wf n first more = true -> (1 <= n)%nat -> ws_only ws = true -> sib_wf w = true -> ws_only tail = true ->
  forallb (fun c => negb (c =? 0)) (45 :: 32 :: ps_text first more ws (45 :: 32 :: w ++ tail)) = true ->
  exists toks, scan_str (45 :: 32 :: ps_text first more ws (45 :: 32 :: w ++ tail)) = (toks, SEnded) /\
               map snd toks = wrap false false [TBlockSequenceStart; TBlockEntry; p_tok first more; TBlockEntry; TScalar Plain w; TBlockEnd].
Proof. exact (scan_plain_place_sib Entry [] n first more ws w tail ltac:(discriminate) I I). Qed.

(* text -> events *)
Theorem run_plain_value_sib kw n first more ws kw2 w tail :
  key_ok kw = true -> p_wf n first more = true -> (1 <= n)%nat -> ws_only ws = true ->
  key_ok kw2 = true -> sib_wf w = true -> ws_only tail = true ->
  forallb (fun c => negb (c =? 0)) (kw ++ 58 :: 32 :: ps_text first more ws (kw2 ++ 58 :: 32 :: w ++ tail)) = true ->
  map fst (fst (run_str (kw ++ 58 :: 32 :: ps_text first more ws (kw2 ++ 58 :: 32 :: w ++ tail))))
  = [EStreamStart; EDocumentStart false; EMappingStart 0 None; EScalar kw Plain 0 None; EScalar (plain_text first more) Plain 0 None;
     EScalar kw2 Plain 0 None; EScalar w Plain 0 None; EMappingEnd; EDocumentEnd; EStreamEnd]
  /\ snd (run_str (kw ++ 58 :: 32 :: ps_text first more ws (kw2 ++ 58 :: 32 :: w ++ tail))) = PDone.
Proof.
  intros Hkw Hwf Hn Hws Hkw2 Hw Htail Hnul.
  exact (run_of_scan _ (LBMap no_props [(true, lword kw, (true, p_node first more)); (true, lword kw2, (true, lword w))])
           (scan_plain_value_sib kw n first more ws kw2 w tail Hkw Hwf Hn Hws Hkw2 Hw Htail Hnul) eq_refl eq_refl ltac:(cbn; lia)).
Qed.

Theorem run_plain_entry_sib n first more ws w tail :
  p_wf n first more = true -> (1 <= n)%nat -> ws_only ws = true -> sib_wf w = true -> ws_only tail = true ->
  forallb (fun c => negb (c =? 0)) (45 :: 32 :: ps_text first more ws (45 :: 32 :: w ++ tail)) = true ->
  map fst (fst (run_str (45 :: 32 :: ps_text first more ws (45 :: 32 :: w ++ tail))))
  = [EStreamStart; EDocumentStart false; ESequenceStart 0 None; EScalar (plain_text first more) Plain 0 None; EScalar w Plain 0 None;
     ESequenceEnd; EDocumentEnd; EStreamEnd]
  /\ snd (run_str (45 :: 32 :: ps_text first more ws (45 :: 32 :: w ++ tail))) = PDone.
Proof.
  intros Hwf Hn Hws Hw Htail Hnul.
  exact (run_of_scan _ (LBSeq no_props [p_node first more; lword w])
           (scan_plain_entry_sib n first more ws w tail Hwf Hn Hws Hw Htail Hnul) eq_refl eq_refl ltac:(cbn; lia)).
Qed.
