(* C06 -- rejection lemmas, part 2: the scanner layer and the bridge between the two layers.
   (1) bridge: whatever the text, a scanner ERROR is never swallowed by the parser, and an accepted text has a token stream
       with balanced flow brackets ([run_str] = scanner then parser);
   (2) the repaired classes (/repo c5ad60c, ad74b3e, 57aa316) as positive statements: empty explicit key; the implicit key
       of a flow-sequence pair that spans lines or is longer than 1024 characters ([flow_pair_key_limit_rejected]);
   (3) scanner-layer rejection for ANY scanner state of a stated shape: tab as block indentation, content after a
       document-end marker, a line left of the block indentation inside a flow collection, a quoted scalar that is still
       open at the end of the input; on the way [fetch_next_token] on a token character is brought to [dispatch], which is
       the generated dispatcher of the source (Proofs/DispatchTie.v);
   (4) a mis-indented block entry / key (scanner half incl. the block nesting limit of /repo 99c201b, site 46; parser half),
       a second root node after a scalar root at text level;
   (5) the recorded witness texts; (6) composition with reachability; (7) a quoted implicit key spanning lines;
   (8) text-level families behind a fixed first part;
   (9) a flow collection closed by the bracket of the other kind (/repo 88700d3, sites 47 / 48);
   (10) block context: ':' separated from its value by tabs only (site 97; /repo b87c12b removed the test in flow context);
   (11) text level: wrong closers and 256 nested block collections, whatever follows;
   (12) composition one level down: a failing fetch in any round of the iterator's refill loop.
   Nothing here depends on the shared scanner frameworks (ScanWP / ScanSafe / ScanPos / ScanRel); Proofs/RejectReach.v does. *)
From Coq Require Import List NArith ZArith Bool Lia.
Import ListNotations.
Require Import Parser SBase SPrim SDir SScalar SFetch Pipe SInv Grammar C02base C02rest C02tail C02run DocReset RejectProofs.
Require Import DispatchTie ScanRun ListKit ScalarKit.
Require DocRun.

Arguments N.add : simpl never.
Arguments N.sub : simpl never.
Arguments N.mul : simpl never.
Arguments N.eqb : simpl never.
Arguments N.ltb : simpl never.
Arguments N.leb : simpl never.
Arguments Nat.max : simpl never.

(* (1) the bridge between the layers *)
Definition scan_fuel (s : list N) : nat := (2 * length s + 10)%nat.
Lemma scan_fuel_ge l k : (k <= 2 * length l + 10)%nat -> exists F', scan_fuel l = (k + F')%nat.
Proof. intros H. exists (scan_fuel l - k)%nat. unfold scan_fuel. lia. Qed.

Definition scan_of (s : list N) : list token * scan_end :=
  scan_all str_ops (scan_fuel s) (4 * scan_fuel s + 20) (init_sc {| si_chars := s; si_look := 0 |}) [].

(* [run_str] = the scanner, then the parser on what it delivered (with some parser fuel >= 5; the exact amount is Pipe.v's) *)
Lemma run_str_scan_of s :
  exists pf, (5 <= pf)%nat
             /\ run_str s = parse_all pf (init_parser (fst (scan_of s)) false) (snd (scan_of s)) [].
Proof. eexists. split; [|exact (DocRun.run_str_parse s)]. lia. Qed.

(* every accepted TEXT has a token stream with balanced, matched flow brackets that ends in StreamEnd *)
Theorem text_accepted_implies_balanced s :
  snd (run_str s) = PDone -> flow_balanced (fst (scan_of s)) [] = true.
Proof. destruct (run_str_scan_of s) as (pf & _ & ->). apply accepted_implies_balanced_proved. Qed.

Lemma flow_balanced_has_stream_end l : forall stk, flow_balanced l stk = true -> exists sp, In (sp, TStreamEnd) l.
Proof.
  induction l as [|[sp tk] r IH]; intros stk H; [discriminate|].
  destruct tk; cbn [flow_balanced] in H;
    try (destruct (IH _ H) as [sp' Hin]; exists sp'; right; exact Hin);
    try (exists sp; left; reflexivity);
    destruct stk as [|[|] stk']; try discriminate; destruct (IH _ H) as [sp' Hin]; exists sp'; right; exact Hin.
Qed.

Open Scope mon_scope.

(* the token that ends the stream sets [stream_end] *)
Lemma next_token_stream_end F (s s' : sc strin) t :
  next_token str_ops F s = Ok (Some t, s') -> snd t = TStreamEnd -> sc_stream_end s' = true.
Proof.
  unfold next_token. unfold bind at 1. unfold get at 1.
  destruct (sc_stream_end s); [intros H; inversion H|].
  unfold bind at 1.
  destruct ((if sc_token_available s then ret tt else fetch_more_tokens str_ops F F) s) as [[u s1]|e m|n|]; try discriminate.
  unfold bind at 1. unfold get at 1.
  destruct (sc_tokens s1) as [|t1 r1]; [discriminate|].
  unfold bind at 1. unfold put at 1. unfold bind at 1.
  intros H Ht.
  destruct (snd t1) eqn:E; cbn in H; inversion H; subst; try congruence; reflexivity.
Qed.

Lemma tok_is_stream_end_dec (t : token) : {snd t = TStreamEnd} + {snd t <> TStreamEnd}.
Proof. destruct t as [sp tk]; destruct tk; cbn; (left; reflexivity) || (right; discriminate). Qed.

Lemma scan_all_error_no_stream_end F fuel : forall (s : sc strin) acc toks,
  (forall t, In t acc -> snd t <> TStreamEnd) ->
  (exists e m, snd (scan_all str_ops F fuel s acc) = SError e m) \/ (exists n, snd (scan_all str_ops F fuel s acc) = SPanic n) ->
  toks = fst (scan_all str_ops F fuel s acc) ->
  forall t, In t toks -> snd t <> TStreamEnd.
Proof.
  induction fuel as [|fuel IH]; intros s acc toks Hacc Hse Ht.
  - cbn in Hse. destruct Hse as [(e & m & H)|(n & H)]; discriminate.
  - cbn [scan_all] in Hse, Ht.
    destruct (next_token str_ops F s) as [[[t|] s']|e m|n|] eqn:EN.
    + destruct (tok_is_stream_end_dec t) as [HE|HE].
      * exfalso. pose proof (next_token_stream_end F s s' t EN HE) as Hend.
        destruct fuel as [|fuel']; cbn [scan_all] in Hse.
        -- destruct Hse as [(e & m & H)|(n & H)]; discriminate.
        -- rewrite (next_token_ended str_ops F s' Hend) in Hse. destruct Hse as [(e & m & H)|(n & H)]; discriminate.
      * apply (IH s' (t :: acc) toks); [ | exact Hse | exact Ht ].
        intros t0 [<-|Hin]; [exact HE | apply Hacc; exact Hin].
    + cbn in Hse. destruct Hse as [(e & m & H)|(n & H)]; discriminate.
    + subst toks. cbn [fst]. intros t Hin. apply in_rev in Hin. apply Hacc; exact Hin.
    + subst toks. cbn [fst]. intros t Hin. apply in_rev in Hin. apply Hacc; exact Hin.
    + cbn in Hse. destruct Hse as [(e & m & H)|(n & H)]; discriminate.
Qed.

(* A scanner error (or panic) is never swallowed: whatever the text, if the token iterator ends with an error the
   run does not end in PDone.  (The parser could only reach State::End through a StreamEnd token; the iterator
   delivers nothing behind the token that failed.) *)
Theorem scan_error_rejected s :
  (exists e m, snd (scan_of s) = SError e m) \/ (exists n, snd (scan_of s) = SPanic n) ->
  snd (run_str s) <> PDone.
Proof.
  intros HE HD. pose proof (text_accepted_implies_balanced s HD) as HB.
  destruct (flow_balanced_has_stream_end _ _ HB) as [sp Hin].
  unfold scan_of in *.
  refine (scan_all_error_no_stream_end _ _ _ [] _ _ HE eq_refl (sp, TStreamEnd) Hin eq_refl).
  intros t [].
Qed.

(* both facts in one statement about texts: an accepted text scanned without error and has balanced brackets *)
Corollary text_rejected_if_scan_fails_or_unbalanced s :
  (exists e m, snd (scan_of s) = SError e m) \/ (exists n, snd (scan_of s) = SPanic n)
  \/ flow_balanced (fst (scan_of s)) [] = false ->
  snd (run_str s) <> PDone.
Proof.
  intros [H|[H|H]] HD.
  - exact (scan_error_rejected s (or_introl H) HD).
  - exact (scan_error_rejected s (or_intror H) HD).
  - rewrite (text_accepted_implies_balanced s HD) in H. discriminate.
Qed.

(* (2) the two repaired classes *)
(* /repo c5ad60c: behind an empty explicit key inside a flow sequence the parser emits the empty key and does NOT consume
   the Value / FlowEntry / FlowSequenceEnd token it is looking at *)
Theorem empty_explicit_key_keeps_next_token p sp tk r :
  p_state p = SFlowSequenceEntryMappingKey -> toks_ahead p = (sp, tk) :: r ->
  (tk = TValue \/ tk = TFlowEntry \/ tk = TFlowSequenceEnd) ->
  exists p', state_machine p = Parser.Ok ((empty_scalar, sp), p')
             /\ toks_ahead p' = (sp, tk) :: r /\ p_state p' = SFlowSequenceEntryMappingValue /\ p_states p' = p_states p.
Proof.
  intros HS HT HK. unfold state_machine. rewrite HS. unfold flow_sequence_entry_mapping_key.
  rewrite (peek_norm _ _ _ HT).
  destruct HK as [-> | [-> | ->]]; eexists; (split; [reflexivity|]); repeat split; reflexivity.
Qed.

Lemma flow_balanced_neutral_prefix pre : forall l stk,
  Forall (fun t => neutral (snd t) = true) pre -> flow_balanced (pre ++ l) stk = flow_balanced l stk.
Proof.
  induction pre as [|[sp tk] pre IH]; intros l stk HF; [reflexivity|].
  inversion HF as [|x y Hn HF']; subst. cbn [app]. cbn [snd] in Hn.
  rewrite (flow_balanced_neutral sp tk _ stk Hn). apply IH; exact HF'.
Qed.

(* hence "[ ? ] ]": every token stream  ... FlowSequenceStart Key FlowSequenceEnd FlowSequenceEnd ...  with no
   flow collection open in front of it is rejected -- an instance of the global theorem, for any prefix [pre] of
   bracket-neutral tokens and any rest *)
Theorem stray_closer_after_empty_key_rejected pre sp1 sp2 sp3 sp4 rest keep se fuel :
  Forall (fun t => neutral (snd t) = true) pre ->
  snd (parse_all fuel
         (init_parser (pre ++ (sp1, TFlowSequenceStart) :: (sp2, TKey) :: (sp3, TFlowSequenceEnd) :: (sp4, TFlowSequenceEnd) :: rest) keep)
         se []) <> PDone.
Proof.
  intros HF HD. apply accepted_implies_balanced_proved in HD.
  rewrite (flow_balanced_neutral_prefix pre _ [] HF) in HD. cbn in HD. discriminate.
Qed.

Lemma insert_at_some {A} (x : A) : forall n l, (n <= length l)%nat -> exists l', insert_at n x l = Some l'.
Proof.
  induction n as [|n IH]; intros l H; [eexists; reflexivity|].
  destruct l as [|y r]; [cbn in H; lia|]. cbn [insert_at].
  destruct (IH r) as [l' E]; [cbn in H; lia|]. rewrite E. eexists; reflexivity.
Qed.

Notation chars_of s := (si_chars (sc_in s)).

(* the tab check behind ':' (site 97) only exists in block context (/repo b87c12b) *)
Definition no_tab_behind_colon (s : sc strin) : Prop :=
  sc_flow_level s <> 0%N \/ nth 0 (tl (chars_of s)) 0%N <> 9%N.

(* /repo ad74b3e: the state of the implicit flow mapping is kept per flow level.  For ANY scanner state: when the ':' of a
   "key: value" pair is reached, the innermost flow level is a flow SEQUENCE that is not inside an explicit "? key" pair
   (top of implicit_flow_mapping_states is Possible or Inside) and the key candidate began on an earlier line, the scan
   fails with site 98 ("illegal placement of ':' indicator") -- whatever flow mappings were opened and closed before. *)
(* [fetch_value] up to the insertion of the Key token, for a possible key candidate of a flow-sequence pair *)
Theorem flow_pair_key_limit_rejected F (s : sc strin) k r top rest :
  sc_sks s = k :: r -> sk_possible k = true ->
  sc_ifms s = top :: rest -> (top = ImPossible \/ top = ImInside) ->
  ((m_line (sk_mark k) < m_line (sc_mark s))%N \/ (m_index (sk_mark k) + SIMPLE_KEY_MAX < m_index (sc_mark s))%N) ->
  no_tab_behind_colon s ->
  (sc_tokens_parsed s <= sk_token_number k)%N ->
  (N.to_nat (sk_token_number k - sc_tokens_parsed s) <= length (sc_tokens s))%nat ->
  fetch_value str_ops F s = Err 98 (sc_mark s).
Proof.
  intros Hk Hp Hi Htop Hl Hc Htp Hpos. unfold fetch_value.
  unfold bind at 1. unfold get at 1. rewrite Hk. unfold bind at 1. unfold ret at 1.
  rewrite Hi. cbv zeta.
  assert (Eifm : (match top with ImPossible => true | _ => false end || match top with ImInside => true | _ => false end) = true)
    by (destruct Htop as [->| ->]; reflexivity).
  rewrite Eifm.
  assert (E98 : (m_line (sk_mark k) <? m_line (sc_mark s))%N || (m_index (sk_mark k) + SIMPLE_KEY_MAX <? m_index (sc_mark s))%N = true).
  { destruct Hl as [Hl|Hl]; apply N.ltb_lt in Hl; rewrite Hl; [reflexivity | apply orb_true_r]. }
  rewrite E98. rewrite Hp.
  apply N.ltb_ge in Htp.
  destruct (@insert_at_some token (span_empty (sk_mark k), TKey) _ _ Hpos) as [l' El].
  (* the first step only rewrites [sc_ifms]; the steps up to the test do not read it *)
  match goal with |- bind _ ?K _ = _ =>
    assert (REST : forall s0 : sc strin, chars_of s0 = chars_of s -> sc_tokens s0 = sc_tokens s ->
                     sc_tokens_parsed s0 = sc_tokens_parsed s -> K tt s0 = Err 98 (sc_mark s)) end.
  { intros s0 H0 T0 P0.
    unfold bind at 1. unfold skip_non_blank at 1, bind at 1, in_skip at 1, modify at 1.
    unfold bind at 1, adv_mark at 1, modify at 1. unfold modify at 1.
    match goal with |- bind _ _ ?st = _ => set (s1 := st) end.
    assert (Ec : exists c s2, (if (sc_flow_level s =? 0)%N then look_ch str_ops else ret 0%N) s1 = Ok (c, s2)
                         /\ (c =? 9)%N = false /\ sc_tokens s2 = sc_tokens s /\ sc_tokens_parsed s2 = sc_tokens_parsed s).
    { destruct (N.eqb_spec (sc_flow_level s) 0) as [E0|E0].
      - destruct Hc as [Hc|Hc]; [contradiction|].
        eexists _, _. split; [reflexivity|]. cbn [sc_in set_in upd si_chars sc_tokens sc_tokens_parsed s1 set_lws set_flags set_mark skip1 str_ops].
        rewrite H0. split; [apply N.eqb_neq; exact Hc | split; assumption].
      - eexists _, _. split; [reflexivity|]. split; [reflexivity|]. split; assumption. }
    destruct Ec as (c & s2 & E2 & C9 & T2 & P2).
    rewrite (bind_Ok _ _ _ _ _ E2). rewrite C9.
    unfold bind at 1, ret at 1. unfold bind at 1, get at 1.
    rewrite P2, Htp.
    unfold bind at 1, ret at 1.
    unfold bind at 1. unfold insert_token at 1. rewrite T2, El.
    reflexivity. }
  destruct Htop as [->| ->]; [unfold bind at 1, modify at 1 | unfold bind at 1, ret at 1]; apply REST; reflexivity.
Qed.

(* the two instances: the key candidate began on an earlier line (/repo ad74b3e made the test per flow level) ... *)
Theorem multiline_flow_pair_key_rejected F (s : sc strin) k r top rest :
  sc_sks s = k :: r -> sk_possible k = true ->
  sc_ifms s = top :: rest -> (top = ImPossible \/ top = ImInside) ->
  (m_line (sk_mark k) < m_line (sc_mark s))%N ->
  no_tab_behind_colon s ->
  (sc_tokens_parsed s <= sk_token_number k)%N ->
  (N.to_nat (sk_token_number k - sc_tokens_parsed s) <= length (sc_tokens s))%nat ->
  fetch_value str_ops F s = Err 98 (sc_mark s).
Proof. intros Hk Hp Hi Htop Hl. apply (flow_pair_key_limit_rejected F s k r top rest Hk Hp Hi Htop). left; exact Hl. Qed.

(* ... or more than 1024 characters before the ':' (/repo 57aa316; before, "[ kkk...(1025): v ]" was accepted) *)
Theorem long_flow_pair_key_rejected F (s : sc strin) k r top rest :
  sc_sks s = k :: r -> sk_possible k = true ->
  sc_ifms s = top :: rest -> (top = ImPossible \/ top = ImInside) ->
  (m_index (sk_mark k) + 1024 < m_index (sc_mark s))%N ->
  no_tab_behind_colon s ->
  (sc_tokens_parsed s <= sk_token_number k)%N ->
  (N.to_nat (sk_token_number k - sc_tokens_parsed s) <= length (sc_tokens s))%nat ->
  fetch_value str_ops F s = Err 98 (sc_mark s).
Proof. intros Hk Hp Hi Htop Hl. apply (flow_pair_key_limit_rejected F s k r top rest Hk Hp Hi Htop). right; exact Hl. Qed.

(* (3) scanner layer, for any scanner state of the stated shape *)
Open Scope N_scope.

(* the same scanner state with other remaining input *)
Definition with_chars (s : sc strin) (l : list N) (lk : nat) : sc strin := set_in {| si_chars := l; si_look := lk |} s.

Definition blank_run (st : skiptabs) (ws : list N) : Prop :=
  Forall (fun x => x = 32 \/ (x = 9 /\ st = SkipYes)) ws.
(* a character at which [skip_ws_to_eol] stops without looking further: no space, no (skippable) tab, no '#' *)
Definition stops_ws (st : skiptabs) (c : N) : Prop := c <> 32 /\ (c = 9 -> st = SkipNo) /\ c <> 35.

(* over a run of blanks; the two flags say whether a tab / a space was among them *)
Lemma in_skip_ws_run ws : forall fuel st tab wsf n (s : sc strin) c rest,
  chars_of s = ws ++ c :: rest -> blank_run st ws -> stops_ws st c -> (length ws < fuel)%nat ->
  exists lk, in_skip_ws_to_eol str_ops fuel st tab wsf n s
             = Ok ((n + N.of_nat (length ws), Some (tab || existsb (N.eqb 9) ws, wsf || existsb (N.eqb 32) ws)),
                   with_chars s (c :: rest) lk).
Proof.
  induction ws as [|w ws IH]; intros fuel st tab wsf n s c rest HC HB (Hc1 & Hc2 & Hc3) HL.
  - destruct fuel as [|fuel]; [cbn in HL; lia|]. cbn [app] in HC.
    cbn [in_skip_ws_to_eol]. unfold look_ch, look, peek, peekn, bind. cbn. rewrite HC. cbn.
    apply N.eqb_neq in Hc1, Hc3. rewrite Hc1, Hc3.
    assert (E9 : ((c =? 9) && match st with SkipYes => true | SkipNo => false end) = false).
    { destruct (N.eqb_spec c 9) as [E|E]; [rewrite (Hc2 E); reflexivity | reflexivity]. }
    rewrite E9. unfold ret, with_chars. eexists. rewrite N.add_0_r, !orb_false_r. reflexivity.
  - destruct fuel as [|fuel]; [cbn in HL; lia|]. cbn [app] in HC.
    inversion HB as [|x y Hw HB']; subst.
    cbn [length]. rewrite Nat2N.inj_succ.
    set (s1 := set_in {| si_chars := ws ++ c :: rest; si_look := Nat.max (si_look (sc_in s)) 1 |} s).
    assert (HC1 : chars_of s1 = ws ++ c :: rest) by reflexivity.
    assert (HL1 : (length ws < fuel)%nat) by (cbn in HL; lia).
    cbn [in_skip_ws_to_eol]. unfold look_ch, look, peek, peekn, bind at 1. cbn -[N.of_nat]. rewrite HC. cbn -[N.of_nat].
    destruct Hw as [->|[-> ->]].
    + change (32 =? 32) with true. cbn beta iota.
      destruct (IH fuel st tab true (n + 1) s1 c rest HC1 HB' (conj Hc1 (conj Hc2 Hc3)) HL1) as (lk & E).
      unfold bind, in_skip, modify. cbn -[N.of_nat].
      match goal with |- context [in_skip_ws_to_eol str_ops fuel st tab true (n + 1) ?x] => change x with s1 end.
      rewrite E. exists lk. unfold with_chars, s1. cbn [existsb]. change (32 =? 32) with true. change (9 =? 32) with false.
      cbn [orb]. rewrite orb_true_r. f_equal. f_equal. f_equal. lia.
    + change (9 =? 32) with false. change (9 =? 9) with true. cbn beta iota.
      destruct (IH fuel SkipYes true wsf (n + 1) s1 c rest HC1 HB' (conj Hc1 (conj Hc2 Hc3)) HL1) as (lk & E).
      unfold bind, in_skip, modify. cbn -[N.of_nat].
      match goal with |- context [in_skip_ws_to_eol str_ops fuel SkipYes true wsf (n + 1) ?x] => change x with s1 end.
      rewrite E. exists lk. unfold with_chars, s1. cbn [existsb]. change (9 =? 9) with true. change (32 =? 9) with false.
      cbn [orb]. rewrite orb_true_r. f_equal. f_equal. f_equal. lia.
Qed.

Lemma skip_ws_to_eol_run ws fuel st (s : sc strin) c rest :
  chars_of s = ws ++ c :: rest -> blank_run st ws -> stops_ws st c -> (length ws < fuel)%nat ->
  exists lk, skip_ws_to_eol str_ops fuel st s
             = Ok ((existsb (N.eqb 9) ws, existsb (N.eqb 32) ws),
                   set_mark (adv (N.of_nat (length ws)) (sc_mark s)) (with_chars s (c :: rest) lk)).
Proof.
  intros HC HB HS HL.
  destruct (in_skip_ws_run ws fuel st false false 0 s c rest HC HB HS HL) as (lk & E).
  unfold skip_ws_to_eol. rewrite (bind_Ok _ _ _ _ _ E). cbn [fst snd orb]. rewrite N.add_0_l.
  exists lk. reflexivity.
Qed.

(* a look-ahead only touches the lookahead counter *)
Definition looked (s : sc strin) (n : nat) : sc strin := with_chars s (chars_of s) (Nat.max (si_look (sc_in s)) n).

(* one round of [skip_to_next_token]: its tests are on the next character *)
Lemma skip_to_next_token_head F (s : sc strin) :
  skip_to_next_token str_ops (S F) s =
  (let c := nth 0 (chars_of s) 0 in
   if (c =? 9) && (match sc_indents s with [] => false | _ => true end) && sc_lws s
      && (Z.of_N (m_col (sc_mark s)) <? sc_indent s)%Z then
     skip_ws_to_eol str_ops (S F) SkipYes ;;; b <- next_is str_ops is_breakz ;;
     if b then skip_to_next_token str_ops F else m <- mark ;; fail 41 m
   else if (c =? 9) || (c =? 32) then skip_blank str_ops ;;; skip_to_next_token str_ops F
   else if (c =? 10) || (c =? 13) then
     look str_ops 2 ;;; skip_linebreak str_ops ;;; fl <- flow_level ;;
     (if fl =? 0 then allow_simple_key else ret tt) ;;; skip_to_next_token str_ops F
   else if c =? 35 then
     n <- in_skip_while_non_breakz str_ops (S F) ;; adv_mark n ;;; skip_to_next_token str_ops F
   else ret tt) (looked s 1).
Proof. reflexivity. Qed.

Definition is_content_start (c : N) : Prop := c <> 32 /\ c <> 9 /\ c <> 35 /\ is_breakz c = false.

(* where the scanner wants the line to end behind a run of blanks, content is an error at its first character *)
Lemma content_behind_blanks F e (s : sc strin) ws c rest (K : @M strin unit) :
  chars_of s = ws ++ c :: rest -> blank_run SkipYes ws -> is_content_start c -> (length ws < F)%nat ->
  (skip_ws_to_eol str_ops F SkipYes ;;; b <- next_is str_ops is_breakz ;; if b then K else m <- mark ;; fail e m) s
  = Err e (adv (N.of_nat (length ws)) (sc_mark s)).
Proof.
  intros HC HB (C1 & C2 & C3 & C4) HF.
  assert (HS : stops_ws SkipYes c) by (repeat split; [exact C1 | intros E; contradiction | exact C3]).
  destruct (skip_ws_to_eol_run ws F SkipYes s c rest HC HB HS HF) as (lk & E).
  rewrite (bind_Ok _ _ _ _ _ E).
  unfold next_is, peek, peekn, bind at 1, bind at 1. cbn [peek_nth str_ops sc_in set_mark with_chars set_in upd si_chars nth].
  unfold ret at 1. rewrite C4. reflexivity.
Qed.

(* ---- tab as block indentation (scanner.rs skip_to_next_token: "tabs disallowed within this context (block indentation)")
        ANY state inside a block collection, at the start of a line left of the current indentation, whose next character
        is a tab, followed by any run of blanks and then by content (anything but a line break, the end of input or a
        comment): error site 41 at that content character ---- *)
Theorem tab_indentation_rejected F (s : sc strin) ws c rest :
  chars_of s = 9 :: ws ++ c :: rest -> blank_run SkipYes ws -> is_content_start c ->
  sc_indents s <> [] -> sc_lws s = true -> (Z.of_N (m_col (sc_mark s)) < sc_indent s)%Z ->
  (S (length ws) < F)%nat ->
  skip_to_next_token str_ops F s = Err 41 (adv (N.of_nat (S (length ws))) (sc_mark s)).
Proof.
  intros HC HB Hc HI HW HL HF.
  destruct F as [|F']; [lia|]. rewrite skip_to_next_token_head. cbv zeta.
  rewrite HC, HW. apply Z.ltb_lt in HL. rewrite HL.
  destruct (sc_indents s) as [|i0 inds]; [congruence|]. cbn [nth]. change (9 =? 9) with true. cbn [andb].
  apply (content_behind_blanks (S F') 41 (looked s 1) (9 :: ws) c rest); [exact HC | | exact Hc | exact HF].
  constructor; [right; split; reflexivity | exact HB].
Qed.

(* everything [fetch_next_token] does behind skip_to_next_token *)
Definition fetch_rest (F : nat) : @M strin unit :=
  stale_simple_keys ;;; m <- mark ;; unroll_indent (Z.of_N (m_col m)) ;;;
     look str_ops 4 ;;; z <- next_is str_ops is_z ;;
     if z then fetch_stream_end else
     s <- get ;;
     c0 <- peek str_ops ;;
     dstart <- (if m_col (sc_mark s) =? 0 then if c0 =? 37 then ret false else next_is_document_start str_ops else ret false) ;;
     dend <- (if (m_col (sc_mark s) =? 0) && negb (c0 =? 37) && negb dstart then next_is_document_end str_ops else ret false) ;;
     if (m_col (sc_mark s) =? 0) && (c0 =? 37) then fetch_directive str_ops F
     else if dstart then fetch_document_indicator str_ops TDocumentStart
     else if dend then
       fetch_document_indicator str_ops TDocumentEnd ;;;
       skip_ws_to_eol str_ops F SkipYes ;;;
       b <- next_is str_ops is_breakz ;;
       if b then ret tt else m <- mark ;; fail 101 m
     else
     if (Z.of_N (m_col (sc_mark s)) <? sc_indent s)%Z then fail 102 (sc_mark s) else
     c <- peek str_ops ;; nc <- peekn str_ops 1 ;;
     let fl := 0 <? sc_flow_level s in
     let bz := is_blank_or_breakz nc in
     if c =? 91 then fetch_flow_collection_start str_ops F true
     else if c =? 123 then fetch_flow_collection_start str_ops F false
     else if c =? 93 then fetch_flow_collection_end str_ops F true
     else if c =? 125 then fetch_flow_collection_end str_ops F false
     else if c =? 44 then fetch_flow_entry str_ops F
     else if (c =? 45) && bz then fetch_block_entry str_ops F
     else if (c =? 63) && bz then fetch_key str_ops F
     else if (c =? 58) && bz then fetch_value str_ops F
     else if (c =? 58) && fl && (is_flow nc || (m_index (sc_mark s) =? sc_adjacent s)) then fetch_flow_value str_ops F
     else if c =? 42 then fetch_anchor str_ops F true
     else if c =? 38 then fetch_anchor str_ops F false
     else if c =? 33 then fetch_tag str_ops F
     else if (c =? 124) && negb fl then fetch_block_scalar str_ops F true
     else if (c =? 62) && negb fl then fetch_block_scalar str_ops F false
     else if c =? 39 then fetch_flow_scalar str_ops F true
     else if c =? 34 then fetch_flow_scalar str_ops F false
     else if (c =? 45) && negb bz then fetch_plain_scalar str_ops F
     else if ((c =? 58) || (c =? 63)) && negb bz && negb fl then fetch_plain_scalar str_ops F
     else if (c =? 37) || (c =? 64) || (c =? 96) then fail 103 (sc_mark s)
     else fetch_plain_scalar str_ops F.

Lemma fetch_next_token_started F (s : sc strin) :
  sc_stream_start s = true ->
  fetch_next_token str_ops F s = (skip_to_next_token str_ops F ;;; fetch_rest F) (looked s 1).
Proof.
  intros HS. unfold fetch_next_token, fetch_rest.
  unfold bind at 1. unfold look at 1. cbn [lookahead str_ops].
  unfold bind at 1. unfold get at 1. cbn [sc_stream_start set_in upd]. rewrite HS. cbn [negb].
  reflexivity.
Qed.

Theorem tab_indentation_fetch_rejected F (s : sc strin) ws c rest :
  sc_stream_start s = true ->
  chars_of s = 9 :: ws ++ c :: rest -> blank_run SkipYes ws -> is_content_start c ->
  sc_indents s <> [] -> sc_lws s = true -> (Z.of_N (m_col (sc_mark s)) < sc_indent s)%Z ->
  (S (length ws) < F)%nat ->
  fetch_next_token str_ops F s = Err 41 (adv (N.of_nat (S (length ws))) (sc_mark s)).
Proof.
  intros HS HC HB Hc HI HW HL HF. rewrite (fetch_next_token_started F s HS).
  apply bind_Err.
  exact (tab_indentation_rejected F (looked s 1) ws c rest HC HB Hc HI HW HL HF).
Qed.

(* from [fetch_next_token] to the token iterator: with an empty queue the next call of [next_token] fetches *)
Lemma next_token_fetch_err F (s : sc strin) e m :
  sc_stream_end s = false -> sc_token_available s = false -> sc_tokens s = [] -> (0 < F)%nat ->
  fetch_next_token str_ops F s = Err e m -> next_token str_ops F s = Err e m.
Proof.
  intros HE HA HT HF H. unfold next_token.
  unfold bind at 1. unfold get at 1. rewrite HE, HA.
  apply bind_Err. destruct F as [|F']; [lia|].
  cbn [fetch_more_tokens]. unfold bind at 1. unfold get at 1. rewrite HT.
  unfold bind at 1. unfold ret at 1. apply bind_Err. exact H.
Qed.

(* the common first steps of [fetch_next_token] when the scanner already stands on a token character *)
Definition not_skipped (c : N) : Prop := c <> 9 /\ c <> 32 /\ c <> 10 /\ c <> 13 /\ c <> 35.

Lemma skip_to_next_token_stop F (s : sc strin) :
  (0 < F)%nat -> not_skipped (nth 0 (chars_of s) 0) -> skip_to_next_token str_ops F s = Ok (tt, looked s 1).
Proof.
  intros HF (A & B & C & D & E). destruct F as [|F']; [lia|]. rewrite skip_to_next_token_head. cbv zeta.
  apply N.eqb_neq in A, B, C, D, E. unfold chr in *. rewrite A, B, C, D, E. reflexivity.
Qed.

Lemma fetch_next_token_rest F (s : sc strin) :
  sc_stream_start s = true -> (0 < F)%nat -> not_skipped (nth 0 (chars_of s) 0) ->
  fetch_next_token str_ops F s = fetch_rest F (looked (looked s 1) 1).
Proof.
  intros HS HF HN. rewrite (fetch_next_token_started F s HS).
  exact (bind_Ok _ _ _ _ _ (skip_to_next_token_stop F (looked s 1) HF HN)).
Qed.

Definition invalidate (k : simple_key) : simple_key :=
  {| sk_possible := false; sk_required := sk_required k; sk_token_number := sk_token_number k; sk_mark := sk_mark k |}.

Lemma map_invalidate_Forall2 (f : simple_key -> bool) l :
  Forall2 (fun k k' => k' = k \/ k' = invalidate k) l (map (fun k => if f k then invalidate k else k) l).
Proof.
  induction l as [|k r IH]; [constructor|]. cbn [map]. constructor; [|exact IH].
  destruct (f k); [right; reflexivity | left; reflexivity].
Qed.

(* [stale_simple_keys] succeeds when no stale key is required -- in particular in flow context, or when no key is required
   at all; only [sc_sks] changes, and only by invalidation *)
Lemma stale_simple_keys_ok (s : sc strin) :
  sc_flow_level s <> 0 \/ (forall k, In k (sc_sks s) -> sk_required k = false) ->
  stale_simple_keys s = Ok (tt, set_sks (map (fun k => if stale_key s k then invalidate k else k) (sc_sks s)) s).
Proof.
  intros H.
  assert (E : existsb (fun k => stale_key s k && sk_required k) (sc_sks s) = false).
  { apply not_true_is_false. intros HE. apply existsb_exists in HE. destruct HE as (k & Hin & Hk).
    apply andb_prop in Hk. destruct Hk as [Hs Hr]. unfold stale_key in Hs.
    destruct H as [H|H].
    - apply N.eqb_neq in H. rewrite H in Hs. rewrite andb_false_r in Hs. discriminate.
    - rewrite (H k Hin) in Hr. discriminate. }
  unfold stale_simple_keys. unfold bind at 1. unfold get at 1.
  change (existsb _ (sc_sks s)) with (existsb (fun k => stale_key s k && sk_required k) (sc_sks s)). rewrite E. reflexivity.
Qed.

(* in flow context no key candidate ever goes stale *)
Lemma stale_simple_keys_flow (s : sc strin) :
  sc_flow_level s <> 0 -> stale_simple_keys s = Ok (tt, set_sks (sc_sks s) s).
Proof.
  intros HFL. rewrite (stale_simple_keys_ok s (or_introl HFL)). do 3 f_equal.
  rewrite <- (map_id (sc_sks s)) at 2. apply map_ext. intros k.
  unfold stale_key. apply N.eqb_neq in HFL. rewrite HFL, andb_false_r. reflexivity.
Qed.

(* ---- unrolling the indentation stack never fails on a well-formed stack (SInv.inv2: strictly increasing, bottom -1);
        it only touches the token queue and the indentation stack ---- *)
Definition same_but_block (t t' : sc strin) : Prop :=
  sc_in t' = sc_in t /\ sc_mark t' = sc_mark t /\ sc_sks t' = sc_sks t /\ sc_flow_level t' = sc_flow_level t
  /\ sc_ifms t' = sc_ifms t.

Lemma same_but_block_refl t : same_but_block t t.
Proof. repeat split. Qed.
Lemma same_but_block_trans a b c : same_but_block a b -> same_but_block b c -> same_but_block a c.
Proof. intros (A1 & A2 & A3 & A4 & A5) (B1 & B2 & B3 & B4 & B5). repeat split; congruence. Qed.

Lemma sorted_from_bottom l : forall top, sorted_from top l = true -> (-1 <= top)%Z.
Proof.
  induction l as [|i r IH]; intros top H; cbn [sorted_from] in H.
  - apply Z.eqb_eq in H. lia.
  - apply andb_prop in H. destruct H as [A B]. apply Z.ltb_lt in A. specialize (IH _ B). lia.
Qed.

Lemma unroll_go_ok col : (-1 <= col)%Z -> forall inds (t : sc strin) fuel,
  sc_indents t = inds -> sorted_from (sc_indent t) inds = true -> (length inds < fuel)%nat ->
  exists t', unroll_indent_go fuel col t = Ok (tt, t') /\ same_but_block t t'
             /\ sorted_from (sc_indent t') (sc_indents t') = true.
Proof.
  intros Hcol. induction inds as [|i r IH]; intros t fuel HI HS HL.
  - destruct fuel as [|fuel]; [cbn in HL; lia|]. cbn [unroll_indent_go].
    unfold bind at 1. unfold get at 1. cbn [sorted_from] in HS. apply Z.eqb_eq in HS. rewrite HS.
    assert (E : (col <? -1)%Z = false) by (apply Z.ltb_ge; lia). rewrite E.
    exists t. split; [reflexivity|]. split; [apply same_but_block_refl|]. rewrite HI, HS. reflexivity.
  - destruct fuel as [|fuel]; [cbn in HL; lia|]. cbn [unroll_indent_go].
    unfold bind at 1. unfold get at 1.
    destruct (col <? sc_indent t)%Z eqn:EC.
    + rewrite HI. cbn [sorted_from] in HS. apply andb_prop in HS. destruct HS as [_ HS].
      unfold bind at 1. unfold put at 1. unfold bind at 1.
      set (t0 := set_indent (in_indent i) r t).
      assert (H1 : exists t1, (if in_needs_block_end i then push_tok (span_empty (sc_mark t), TBlockEnd) else ret tt) t0 = Ok (tt, t1)
                              /\ same_but_block t t1 /\ sc_indents t1 = r /\ sc_indent t1 = in_indent i).
      { destruct (in_needs_block_end i); eexists; (split; [reflexivity|]); repeat split. }
      destruct H1 as (t1 & E1 & SB1 & I1 & I2). rewrite E1.
      destruct (IH t1 fuel I1 ltac:(rewrite I2; exact HS) ltac:(cbn in HL; lia)) as (t' & E' & SB' & S').
      exists t'. split; [exact E'|]. split; [exact (same_but_block_trans _ _ _ SB1 SB')|exact S'].
    + exists t. split; [reflexivity|]. split; [apply same_but_block_refl|]. rewrite HI. exact HS.
Qed.

Lemma unroll_indent_flow col (t : sc strin) : sc_flow_level t <> 0 -> unroll_indent col t = Ok (tt, t).
Proof.
  intros HFL. unfold unroll_indent, bind, get.
  assert (E : (0 <? sc_flow_level t) = true) by (apply N.ltb_lt; lia). rewrite E. reflexivity.
Qed.

Lemma unroll_indent_ok col (t : sc strin) :
  (-1 <= col)%Z -> sorted_from (sc_indent t) (sc_indents t) = true ->
  exists t', unroll_indent col t = Ok (tt, t') /\ same_but_block t t'
             /\ sorted_from (sc_indent t') (sc_indents t') = true.
Proof.
  intros Hc HS. destruct (N.eq_dec (sc_flow_level t) 0) as [HFL|HFL].
  - unfold unroll_indent. unfold bind at 1. unfold get at 1. rewrite HFL.
    apply (unroll_go_ok col Hc (sc_indents t) t _ eq_refl HS). lia.
  - exists t. split; [exact (unroll_indent_flow col t HFL)|]. split; [apply same_but_block_refl|exact HS].
Qed.

(* [fetch_rest] up to the choice of the token *)
Lemma next_3_are_at a b c (s : sc strin) :
  (3 <= si_look (sc_in s))%nat ->
  next_3_are str_ops a b c s
  = Ok ((nth 0 (chars_of s) 0 =? a) && (nth 1 (chars_of s) 0 =? b) && (nth 2 (chars_of s) 0 =? c), s).
Proof.
  intros HL. unfold next_3_are, bind, assert_buflen. cbn [buflen str_ops].
  apply Nat.ltb_ge in HL. rewrite HL. reflexivity.
Qed.

(* "---" (k = 45) or "..." (k = 46) followed by a blank, a line break or the end of the input *)
Definition marker_at (k : N) (l : list N) : bool :=
  (nth 0 l 0 =? k) && (nth 1 l 0 =? k) && (nth 2 l 0 =? k) && is_blank_or_breakz (nth 3 l 0).

(* next_is_document_start and next_is_document_end: this, with their own panic site and character *)
Lemma marker_test site k (s : sc strin) :
  (4 <= si_look (sc_in s))%nat ->
  (assert_buflen str_ops 4 site ;;; d <- next_3_are str_ops k k k ;;
   if d then c3 <- peekn str_ops 3 ;; ret (is_blank_or_breakz c3) else ret false) s
  = Ok (marker_at k (chars_of s), s).
Proof.
  intros HL. unfold bind at 1, assert_buflen at 1. cbn [buflen str_ops].
  rewrite (proj2 (Nat.ltb_ge _ _) HL).
  rewrite (bind_Ok _ _ _ _ _ (next_3_are_at k k k s ltac:(lia))). unfold marker_at, chr.
  match goal with |- (if ?b then _ else _) _ = _ => destruct b end; reflexivity.
Qed.

(* everything [fetch_next_token] does once it knows that the token is no directive / document marker / end of stream *)
Definition dispatch (F : nat) (s : sc strin) : @M strin unit :=
  if (Z.of_N (m_col (sc_mark s)) <? sc_indent s)%Z then fail 102 (sc_mark s) else
  c <- peek str_ops ;; nc <- peekn str_ops 1 ;;
  let fl := 0 <? sc_flow_level s in
  let bz := is_blank_or_breakz nc in
  if c =? 91 then fetch_flow_collection_start str_ops F true
  else if c =? 123 then fetch_flow_collection_start str_ops F false
  else if c =? 93 then fetch_flow_collection_end str_ops F true
  else if c =? 125 then fetch_flow_collection_end str_ops F false
  else if c =? 44 then fetch_flow_entry str_ops F
  else if (c =? 45) && bz then fetch_block_entry str_ops F
  else if (c =? 63) && bz then fetch_key str_ops F
  else if (c =? 58) && bz then fetch_value str_ops F
  else if (c =? 58) && fl && (is_flow nc || (m_index (sc_mark s) =? sc_adjacent s)) then fetch_flow_value str_ops F
  else if c =? 42 then fetch_anchor str_ops F true
  else if c =? 38 then fetch_anchor str_ops F false
  else if c =? 33 then fetch_tag str_ops F
  else if (c =? 124) && negb fl then fetch_block_scalar str_ops F true
  else if (c =? 62) && negb fl then fetch_block_scalar str_ops F false
  else if c =? 39 then fetch_flow_scalar str_ops F true
  else if c =? 34 then fetch_flow_scalar str_ops F false
  else if (c =? 45) && negb bz then fetch_plain_scalar str_ops F
  else if ((c =? 58) || (c =? 63)) && negb bz && negb fl then fetch_plain_scalar str_ops F
  else if (c =? 37) || (c =? 64) || (c =? 96) then fail 103 (sc_mark s)
  else fetch_plain_scalar str_ops F.

(* not left of the block indentation: the arm of the source's dispatcher (Gen/Dispatch.v, tied to the model in
   Proofs/DispatchTie.v) for the next two characters *)
Lemma dispatch_run F (s : sc strin) :
  (sc_indent s <= Z.of_N (m_col (sc_mark s)))%Z ->
  dispatch F s s = run_dact str_ops F (Dispatch.dispatch (nth 0 (chars_of s) 0) (nth 1 (chars_of s) 0)
                                          (0 <? sc_flow_level s) (m_index (sc_mark s) =? sc_adjacent s)) s s.
Proof.
  intros HC. rewrite <- tbl_dispatch. unfold dispatch. apply Z.ltb_ge in HC. rewrite HC. reflexivity.
Qed.

(* from a state that is not at the end of the input, once the pending keys and the indentation are dealt with: a directive,
   a document marker, or [dispatch] *)
Lemma fetch_rest_at F (s1 s2 s3 : sc strin) :
  stale_simple_keys s1 = Ok (tt, s2) -> unroll_indent (Z.of_N (m_col (sc_mark s2))) s2 = Ok (tt, s3) ->
  nth 0 (chars_of s3) 0 <> 0 ->
  let s4 := looked s3 4 in
  let c0 := nth 0 (chars_of s3) 0 in
  let col0 := m_col (sc_mark s3) =? 0 in
  let dstart := col0 && negb (c0 =? 37) && marker_at 45 (chars_of s3) in
  let dend := col0 && negb (c0 =? 37) && negb dstart && marker_at 46 (chars_of s3) in
  fetch_rest F s1 =
  (if col0 && (c0 =? 37) then fetch_directive str_ops F
   else if dstart then fetch_document_indicator str_ops TDocumentStart
   else if dend then
     fetch_document_indicator str_ops TDocumentEnd ;;; skip_ws_to_eol str_ops F SkipYes ;;;
     b <- next_is str_ops is_breakz ;; if b then ret tt else m <- mark ;; fail 101 m
   else dispatch F s4) s4.
Proof.
  intros E2 E3 HZ s4 c0 col0 dstart dend. unfold fetch_rest.
  rewrite (bind_Ok _ _ _ _ _ E2). unfold bind at 1, mark at 1, gets at 1. rewrite (bind_Ok _ _ _ _ _ E3).
  unfold bind at 1, look at 1. cbn [lookahead str_ops].
  change (set_in {| si_chars := chars_of s3; si_look := Nat.max (si_look (sc_in s3)) 4 |} s3) with s4.
  unfold bind at 1, next_is at 1, bind at 1, peek at 1, peekn at 1, ret at 1. cbn [peek_nth str_ops].
  change (chars_of s4) with (chars_of s3). unfold is_z. apply N.eqb_neq in HZ. unfold chr in *. rewrite HZ.
  unfold bind at 1, get at 1. unfold bind at 1, peek at 1, peekn at 1. cbn [peek_nth str_ops].
  change (chars_of s4) with (chars_of s3). change (sc_mark s4) with (sc_mark s3). fold c0 col0.
  assert (L4 : (4 <= si_look (sc_in s4))%nat) by (cbn; lia).
  assert (DS : (if col0 then if c0 =? 37 then ret false else next_is_document_start str_ops else ret false) s4 = Ok (dstart, s4)).
  { unfold dstart. destruct col0; [|reflexivity]. destruct (c0 =? 37); [reflexivity|]. exact (marker_test 106 45 s4 L4). }
  rewrite (bind_Ok _ _ _ _ _ DS).
  assert (DE : (if col0 && negb (c0 =? 37) && negb dstart then next_is_document_end str_ops else ret false) s4 = Ok (dend, s4)).
  { unfold dend. destruct (col0 && negb (c0 =? 37) && negb dstart); [|reflexivity]. exact (marker_test 107 46 s4 L4). }
  rewrite (bind_Ok _ _ _ _ _ DE). reflexivity.
Qed.

(* a character that starts neither a directive nor (possibly) a document marker where the scanner stands *)
Definition no_marker_start (s : sc strin) (c : N) : Prop :=
  c <> 0 /\ (m_col (sc_mark s) <> 0 \/ (c <> 37 /\ c <> 45 /\ c <> 46)).

Lemma fetch_rest_no_marker F (s1 s2 s3 : sc strin) :
  stale_simple_keys s1 = Ok (tt, s2) -> unroll_indent (Z.of_N (m_col (sc_mark s2))) s2 = Ok (tt, s3) ->
  no_marker_start s3 (nth 0 (chars_of s3) 0) ->
  fetch_rest F s1 = dispatch F (looked s3 4) (looked s3 4).
Proof.
  intros E2 E3 (HZ & HD). rewrite (fetch_rest_at F s1 s2 s3 E2 E3 HZ). unfold marker_at.
  destruct HD as [HD|(D1 & D2 & D3)].
  - apply N.eqb_neq in HD. rewrite HD. reflexivity.
  - apply N.eqb_neq in D1, D2, D3. unfold chr in *. rewrite D1, D2, D3. cbn [andb negb]. rewrite !andb_false_r. reflexivity.
Qed.

Lemma fetch_rest_flow F (s1 : sc strin) :
  sc_flow_level s1 <> 0 -> no_marker_start s1 (nth 0 (chars_of s1) 0) ->
  fetch_rest F s1 = dispatch F (looked (set_sks (sc_sks s1) s1) 4) (looked (set_sks (sc_sks s1) s1) 4).
Proof.
  intros HFL HM.
  exact (fetch_rest_no_marker F s1 _ _ (stale_simple_keys_flow s1 HFL) (unroll_indent_flow _ (set_sks (sc_sks s1) s1) HFL) HM).
Qed.

(* ANY state with a well-formed indentation stack and no required stale key, standing on such a character: what is left of
   [fetch_next_token] behind skip_to_next_token is [dispatch], in a state that differs only by invalidated key candidates,
   closed block collections (block context only) and the lookahead counter *)
Lemma fetch_rest_dispatch F (s1 : sc strin) :
  sorted_from (sc_indent s1) (sc_indents s1) = true ->
  (sc_flow_level s1 <> 0 \/ forall k, In k (sc_sks s1) -> sk_required k = false) ->
  no_marker_start s1 (nth 0 (chars_of s1) 0) ->
  exists s4, fetch_rest F s1 = dispatch F s4 s4
             /\ chars_of s4 = chars_of s1 /\ (4 <= si_look (sc_in s4))%nat /\ sc_mark s4 = sc_mark s1
             /\ sc_flow_level s4 = sc_flow_level s1 /\ sc_ifms s4 = sc_ifms s1
             /\ Forall2 (fun k k' => k' = k \/ k' = invalidate k) (sc_sks s1) (sc_sks s4)
             /\ sorted_from (sc_indent s4) (sc_indents s4) = true
             /\ (sc_flow_level s1 <> 0 -> sc_indent s4 = sc_indent s1 /\ sc_indents s4 = sc_indents s1 /\ sc_tokens s4 = sc_tokens s1).
Proof.
  intros HS HR HM.
  pose proof (stale_simple_keys_ok s1 HR) as E2.
  set (s2 := set_sks (map (fun k => if stale_key s1 k then invalidate k else k) (sc_sks s1)) s1) in E2.
  destruct (unroll_indent_ok (Z.of_N (m_col (sc_mark s2))) s2 ltac:(lia) HS) as (s3 & E3 & (A1 & A2 & A3 & A4 & A5) & HS3).
  exists (looked s3 4). split.
  { apply (fetch_rest_no_marker F s1 s2 s3 E2 E3). unfold no_marker_start. rewrite A1, A2. exact HM. }
  cbn [looked with_chars sc_in sc_mark sc_flow_level sc_ifms sc_sks sc_indent sc_indents sc_tokens set_in upd si_chars si_look].
  rewrite A1, A2, A3, A4, A5.
  split; [reflexivity|]. split; [lia|]. split; [reflexivity|]. split; [reflexivity|]. split; [reflexivity|].
  split; [apply map_invalidate_Forall2|]. split; [exact HS3|].
  intros HFL. rewrite (unroll_indent_flow _ s2 HFL) in E3. injection E3 as <-. repeat split.
Qed.

(* the same from [fetch_next_token], for a started state standing on a token character *)
Lemma fetch_next_token_dispatch F (s : sc strin) :
  sc_stream_start s = true -> (0 < F)%nat ->
  not_skipped (nth 0 (chars_of s) 0) -> no_marker_start s (nth 0 (chars_of s) 0) ->
  sorted_from (sc_indent s) (sc_indents s) = true ->
  (sc_flow_level s <> 0 \/ forall k, In k (sc_sks s) -> sk_required k = false) ->
  exists s4, fetch_next_token str_ops F s = dispatch F s4 s4
             /\ chars_of s4 = chars_of s /\ (4 <= si_look (sc_in s4))%nat /\ sc_mark s4 = sc_mark s
             /\ sc_flow_level s4 = sc_flow_level s /\ sc_ifms s4 = sc_ifms s
             /\ Forall2 (fun k k' => k' = k \/ k' = invalidate k) (sc_sks s) (sc_sks s4)
             /\ sorted_from (sc_indent s4) (sc_indents s4) = true
             /\ (sc_flow_level s <> 0 -> sc_indent s4 = sc_indent s /\ sc_indents s4 = sc_indents s /\ sc_tokens s4 = sc_tokens s).
Proof.
  intros HSS HF HN HM HS HR. rewrite (fetch_next_token_rest F s HSS HF HN).
  exact (fetch_rest_dispatch F (looked (looked s 1) 1) HS HR HM).
Qed.

(* ---- a line that starts left of the block indentation while a flow collection is open ("invalid indentation"):
        ANY state in flow context whose next character starts a token, in a column smaller than the indentation of the
        enclosing block collection (not "---" / "..." / "%" at column 0, which are treated earlier): site 102 ---- *)
Theorem flow_line_left_of_block_indentation_rejected F (s : sc strin) :
  let c := nth 0 (chars_of s) 0 in
  sc_stream_start s = true -> (0 < F)%nat ->
  sc_flow_level s <> 0 ->
  not_skipped c -> c <> 0 ->
  (m_col (sc_mark s) <> 0 \/ (c <> 37 /\ c <> 45 /\ c <> 46)) ->
  (Z.of_N (m_col (sc_mark s)) < sc_indent s)%Z ->
  fetch_next_token str_ops F s = Err 102 (sc_mark s).
Proof.
  intros c HS HF HFL HN HZ HD HL. rewrite (fetch_next_token_rest F s HS HF HN).
  rewrite (fetch_rest_flow F (looked (looked s 1) 1) HFL (conj HZ HD)). unfold dispatch.
  cbn [looked with_chars sc_mark sc_indent set_sks set_struct set_in upd].
  apply Z.ltb_lt in HL. rewrite HL. reflexivity.
Qed.

Lemma fetch_document_indicator_ok tk (t : sc strin) k r :
  sorted_from (sc_indent t) (sc_indents t) = true ->
  sc_sks t = k :: r -> sk_required k = false ->
  exists t', fetch_document_indicator str_ops tk t = Ok (tt, t')
             /\ chars_of t' = skipn 3 (chars_of t) /\ sc_mark t' = adv 3 (sc_mark t).
Proof.
  intros HS HK HR. unfold fetch_document_indicator.
  destruct (unroll_indent_ok (-1) t ltac:(lia) HS) as (t1 & E1 & (A1 & A2 & A3 & A4) & _).
  rewrite (bind_Ok _ _ _ _ _ E1).
  unfold bind at 1. unfold remove_simple_key at 1. unfold bind at 1. unfold get at 1.
  rewrite A3, HK, HR, andb_false_r. unfold put at 1.
  unfold bind at 1. unfold disallow_simple_key at 1, modify at 1.
  unfold bind at 1. unfold mark at 1, gets at 1.
  unfold bind at 1. unfold skip_n_non_blank at 1.
  unfold bind at 1. unfold in_skip_n at 1. cbn [skip_n str_ops].
  unfold bind at 1. unfold adv_mark at 1, modify at 1. unfold modify at 1.
  unfold bind at 1. unfold mark at 1, gets at 1. unfold push_tok, modify.
  eexists. split; [reflexivity|]. cbn. rewrite A1, A2. split; reflexivity.
Qed.

(* ---- content after a document-end marker (scanner.rs fetch_next_token: "invalid content after document end marker"):
        ANY state at column 0 whose input continues with "..." , at least one blank, any further blanks and then content
        (not a comment, not a line break, not the end of input); the indentation stack is well-formed and no pending
        simple key is required: error site 101 at the content character ---- *)
Theorem content_after_document_end_rejected F (s : sc strin) b ws c rest k0 r0 :
  sc_stream_start s = true ->
  chars_of s = 46 :: 46 :: 46 :: b :: ws ++ c :: rest -> (b = 32 \/ b = 9) -> blank_run SkipYes ws -> is_content_start c ->
  m_col (sc_mark s) = 0 ->
  sorted_from (sc_indent s) (sc_indents s) = true ->
  sc_sks s = k0 :: r0 -> (forall k, In k (sc_sks s) -> sk_required k = false) ->
  (S (length ws) < F)%nat ->
  fetch_next_token str_ops F s = Err 101 (adv (N.of_nat (S (length ws))) (adv 3 (sc_mark s))).
Proof.
  intros HSS HC Hb HB Hc Hcol HS HK HR HF.
  assert (HN : not_skipped (nth 0 (chars_of s) 0)) by (rewrite HC; repeat split; discriminate).
  rewrite (fetch_next_token_rest F s HSS ltac:(lia) HN).
  set (s1 := looked (looked s 1) 1).
  pose proof (stale_simple_keys_ok s1 (or_intror HR)) as E2.
  set (s2 := set_sks (map (fun k => if stale_key s1 k then invalidate k else k) (sc_sks s1)) s1) in E2.
  destruct (unroll_indent_ok (Z.of_N (m_col (sc_mark s2))) s2 ltac:(lia) HS) as (s3 & E3 & (A1 & A2 & A3 & A4) & HS3).
  assert (HC3 : chars_of s3 = 46 :: 46 :: 46 :: b :: ws ++ c :: rest) by (rewrite A1; exact HC).
  assert (HK3 : exists k' r', sc_sks s3 = k' :: r' /\ sk_required k' = false).
  { rewrite A3. change (sc_sks s2) with (map (fun k => if stale_key s1 k then invalidate k else k) (sc_sks s)).
    rewrite HK. cbn [map]. eexists _, _. split; [reflexivity|].
    assert (Hk0 : sk_required k0 = false) by (apply HR; rewrite HK; left; reflexivity).
    destruct (stale_key s1 k0); exact Hk0. }
  destruct HK3 as (k' & r' & HK3 & HR3).
  rewrite (fetch_rest_at F s1 s2 s3 E2 E3) by (rewrite HC3; discriminate).
  (* at column 0, on "..." and a blank *)
  rewrite HC3, A2. change (sc_mark s2) with (sc_mark s). rewrite Hcol. unfold marker_at. cbn [nth].
  assert (Hbz : is_blank_or_breakz b = true) by (destruct Hb as [->| ->]; reflexivity). rewrite Hbz.
  change (0 =? 0) with true. change (46 =? 37) with false. change (46 =? 45) with false. change (46 =? 46) with true.
  cbn [andb negb].
  destruct (fetch_document_indicator_ok TDocumentEnd (looked s3 4) k' r' HS3 HK3 HR3) as (s5 & E5 & HC5 & HM5).
  rewrite (bind_Ok _ _ _ _ _ E5).
  change (chars_of (looked s3 4)) with (chars_of s3) in HC5. rewrite HC3 in HC5. cbn [skipn] in HC5.
  rewrite (content_behind_blanks F 101 s5 (b :: ws) c rest (ret tt) HC5); [ | | exact Hc | exact HF ].
  - rewrite HM5. change (sc_mark (looked s3 4)) with (sc_mark s3). rewrite A2. reflexivity.
  - constructor; [|exact HB]. destruct Hb as [->| ->]; [left; reflexivity | right; split; reflexivity].
Qed.

(* a quoted scalar that is still open at the end of the input *)
Definition errs {A} (o : outcome A) : Prop := exists e m, o = Err e m.

Lemma errs_bind {I A B} (m : @M I A) (f : A -> @M I B) s : errs (m s) -> errs (bind m f s).
Proof. intros (e & k & H). exists e, k. apply bind_Err. exact H. Qed.
Lemma errs_Err {A} e m : errs (@Err A e m).
Proof. exists e, m. reflexivity. Qed.

Lemma In_skipn {A} (x : A) k l : In x (skipn k l) -> In x l.
Proof. intros H. rewrite <- (firstn_skipn k l). apply in_or_app. right. exact H. Qed.
Lemma nth0_In (l : list N) x : nth 0 l 0 = x -> x <> 0 -> In x l.
Proof. destruct l as [|y r]; cbn; intros H Hx; [congruence | left; exact H]. Qed.
Lemma tl_skipn1 {A} (l : list A) : tl l = skipn 1 l.
Proof. exact (tl_skipn 0 l). Qed.

(* "no panic, not out of fuel; if it returns, then with [P]" *)
Definition post {A} (o : outcome (A * sc strin)) (P : A -> sc strin -> Prop) : Prop :=
  match o with Ok (a, s') => P a s' | Err _ _ => True | _ => False end.

Lemma post_bind {A B} (m : @M strin A) (f : A -> @M strin B) s (Q : B -> sc strin -> Prop) :
  post (m s) (fun a s' => post (f a s') Q) -> post (bind m f s) Q.
Proof. unfold bind. destruct (m s) as [[a s']|e k|n|]; cbn; intros H; exact H. Qed.
Lemma post_weaken {A} (o : outcome (A * sc strin)) (P Q : A -> sc strin -> Prop) :
  post o P -> (forall a s', P a s' -> Q a s') -> post o Q.
Proof. destruct o as [[a s']|e k|n|]; cbn; intros H HI; auto. Qed.
Lemma post_false_errs {A} (o : outcome (A * sc strin)) : post o (fun _ _ => False) -> errs o.
Proof. destruct o as [[a s']|e k|n|]; cbn; intros H; try contradiction. exists e, k. reflexivity. Qed.

Lemma skip_linebreak_spec (s : sc strin) :
  (2 <= si_look (sc_in s))%nat ->
  post (skip_linebreak str_ops s) (fun _ s' => exists k, chars_of s' = skipn k (chars_of s)).
Proof.
  intros HL. unfold skip_linebreak.
  unfold bind at 1. unfold next_2_are at 1, bind at 1, assert_buflen at 1. cbn [buflen str_ops].
  assert (E : Nat.ltb (si_look (sc_in s)) 2 = false) by (apply Nat.ltb_ge; exact HL). rewrite E.
  unfold bind at 1, peek at 1, peekn at 1. cbn [peek_nth str_ops].
  unfold bind at 1, peekn at 1. cbn [peek_nth str_ops]. unfold ret at 1.
  destruct ((nth 0 (chars_of s) 0 =? 13) && (nth 1 (chars_of s) 0 =? 10)).
  - cbn. exists 2%nat. destruct (chars_of s) as [|a [|b r]]; reflexivity.
  - unfold bind at 1, peek at 1, peekn at 1. cbn [peek_nth str_ops].
    destruct (is_break (nth 0 (chars_of s) 0)).
    + cbn. exists 1%nat. apply tl_skipn1.
    + cbn. exists 0%nat. reflexivity.
Qed.

Lemma read_hex_keeps n : forall i acc start (s : sc strin),
  post (read_hex str_ops n i acc start s) (fun _ s' => s' = s).
Proof.
  induction n as [|n IH]; intros i acc start s; [reflexivity|].
  cbn [read_hex]. unfold bind, peekn. cbn [peek_nth str_ops].
  destruct (is_hex (nth i (chars_of s) 0)); [apply IH | exact I].
Qed.

Lemma resolve_escape_spec start (s : sc strin) :
  post (resolve_escape str_ops start s) (fun _ s' => exists k, chars_of s' = skipn k (chars_of s) /\ (2 <= k)%nat).
Proof.
  unfold resolve_escape. unfold bind at 1, peekn at 1. cbn [peek_nth str_ops].
  destruct (assocc (nth 1 (chars_of s) 0) escape_table) as [r|].
  - cbn. exists 2%nat. split; [reflexivity|lia].
  - destruct (Nat.eqb (code_length (nth 1 (chars_of s) 0)) 0); [exact I|].
    set (n := code_length (nth 1 (chars_of s) 0)).
    unfold bind at 1. unfold skip_n_non_blank at 1, bind at 1, in_skip_n at 1. cbn [skip_n str_ops].
    unfold bind at 1, adv_mark at 1, modify at 1. unfold modify at 1.
    unfold bind at 1, look at 1. cbn [lookahead str_ops].
    apply post_bind. eapply post_weaken; [apply read_hex_keeps|].
    intros v s' ->. destruct (is_scalar_value v); [|exact I].
    unfold skip_n_non_blank, bind, in_skip_n, adv_mark, modify, ret. cbn [skip_n str_ops].
    cbn [post sc_in set_in upd set_mark set_lws set_flags si_chars]. exists (2 + n)%nat. split; [|lia]. rewrite skipn_add. reflexivity.
Qed.

Definition qchar (single : bool) : N := if single then 39 else 34.
Definition qfree (single : bool) (l : list N) : Prop := ~ In (qchar single) l.

Lemma qfree_skipn single k l : qfree single l -> qfree single (skipn k l).
Proof. intros H Hin. apply H. exact (In_skipn _ _ _ Hin). Qed.
Lemma qfree_head single l : qfree single l -> nth 0 l 0 =? qchar single = false.
Proof.
  intros H. apply N.eqb_neq. intros E. apply H. apply (nth0_In l _ E). destruct single; cbn; discriminate.
Qed.
Lemma nonblank_nonempty (l : list N) : is_blank_or_breakz (nth 0 l 0) = false -> (1 <= length l)%nat.
Proof. destruct l; cbn; [discriminate | lia]. Qed.

(* the character loop of a quoted scalar on input that holds no closing quote: it only moves forward *)
Definition moved (s : sc strin) (s' : sc strin) : Prop :=
  exists k, chars_of s' = skipn k (chars_of s)
            /\ (is_blank_or_breakz (nth 0 (chars_of s) 0) = false -> (1 <= k)%nat)
            /\ (is_blank_or_breakz (nth 0 (chars_of s) 0) = true -> k = 0%nat).

Lemma consume_nonws_spec fuel : forall single acc start (s : sc strin),
  qfree single (chars_of s) -> (length (chars_of s) < fuel)%nat ->
  post (consume_nonws str_ops fuel single acc start s) (fun _ s' => moved s s').
Proof.
  induction fuel as [|fuel IH]; intros single acc start s HQ HL; [lia|].
  cbn [consume_nonws].
  unfold bind at 1, look at 1. cbn [lookahead str_ops].
  set (s0 := set_in {| si_chars := chars_of s; si_look := Nat.max (si_look (sc_in s)) 2 |} s).
  unfold bind at 1, peek at 1, peekn at 1. cbn [peek_nth str_ops sc_in s0 set_in upd si_chars].
  set (c := nth 0 (chars_of s) 0).
  destruct (is_blank_or_breakz c) eqn:EB.
  - cbn [post ret]. exists 0%nat. split; [reflexivity|]. split; [intros E; unfold c in EB; rewrite EB in E; discriminate | reflexivity].
  - unfold bind at 1, peekn at 1. cbn [peek_nth str_ops sc_in s0 set_in upd si_chars].
    set (nc := nth 1 (chars_of s) 0).
    pose proof (qfree_head single _ HQ) as HH. change (nth 0 (chars_of s) 0) with c in HH.
    pose proof (nonblank_nonempty _ EB) as HN.
    assert (REC : forall acc' (s1 : sc strin) k1, chars_of s1 = skipn k1 (chars_of s) -> (1 <= k1)%nat ->
              post (consume_nonws str_ops fuel single acc' start s1) (fun _ s' => moved s s')).
    { intros acc' s1 k1 H1 Hk1.
      eapply post_weaken; [apply IH; [rewrite H1; apply qfree_skipn; exact HQ | rewrite H1, skipn_length; unfold chr in *; lia]|].
      intros _ s' (k2 & A & _ & _). exists (k1 + k2)%nat. rewrite A, H1, skipn_add.
      split; [reflexivity|]. split; [intros; lia | intros E; unfold c in EB; rewrite EB in E; discriminate]. }
    destruct single; unfold qchar in HH.
    + rewrite HH. cbn [andb negb]. rewrite !andb_false_r. cbn iota.
      apply post_bind. unfold skip_non_blank, bind, in_skip, adv_mark, modify. cbn [post].
      apply (REC _ _ 1%nat); [cbn; apply tl_skipn1 | lia].
    + rewrite HH. cbn [andb negb]. rewrite !andb_false_r, !andb_true_r. cbn iota.
      destruct (c =? 92) eqn:E92; cbn [andb].
      * destruct (is_break nc) eqn:EBR.
        -- unfold bind at 1, look at 1. cbn [lookahead str_ops].
           unfold bind at 1. unfold skip_non_blank at 1, bind at 1, in_skip at 1, modify at 1.
           unfold bind at 1, adv_mark at 1, modify at 1. unfold modify at 1.
           apply post_bind. eapply post_weaken; [apply skip_linebreak_spec; cbn; lia|].
           intros _ s' (k & A). cbn [post ret]. exists (1 + k)%nat.
           rewrite A. cbn [sc_in set_lws set_flags set_mark set_in upd si_chars skip1 str_ops s0].
           rewrite tl_skipn1, skipn_add.
           split; [reflexivity|]. split; [intros; lia | intros E; unfold c in EB; rewrite EB in E; discriminate].
        -- apply post_bind. eapply post_weaken; [apply resolve_escape_spec|].
           intros r s1 (k1 & A & Hk1). apply (REC _ _ k1); [exact A | lia].
      * apply post_bind. unfold skip_non_blank, bind, in_skip, adv_mark, modify. cbn [post].
        apply (REC _ _ 1%nat); [cbn; apply tl_skipn1 | lia].
Qed.

Lemma skip_break_spec (s : sc strin) :
  is_break (nth 0 (chars_of s) 0) = true ->
  post (skip_break str_ops s) (fun _ s' => exists k, chars_of s' = skipn k (chars_of s) /\ (1 <= k)%nat).
Proof.
  intros HB. unfold skip_break.
  unfold bind at 1, peek at 1, peekn at 1. cbn [peek_nth str_ops].
  unfold bind at 1, peekn at 1. cbn [peek_nth str_ops]. unfold chr in *. rewrite HB.
  unfold bind at 1, ret at 1.
  match goal with |- context [if ?b then _ else _] => destruct b end;
    unfold bind, ret, skip_blank, skip_nl, in_skip, adv_mark, modify; cbn [post sc_in set_in upd set_lws set_flags set_mark si_chars skip1 str_ops].
  - exists 2%nat. split; [|lia]. destruct (chars_of s) as [|a [|b r]]; reflexivity.
  - exists 1%nat. split; [apply tl_skipn1|lia].
Qed.

Lemma flow_blanks_spec fuel : forall lbl lb tb ws (s : sc strin),
  (length (chars_of s) < fuel)%nat ->
  post (flow_blanks str_ops fuel lbl lb tb ws s)
    (fun _ s' => exists k, chars_of s' = skipn k (chars_of s)
                 /\ (is_blank (nth 0 (chars_of s) 0) || is_break (nth 0 (chars_of s) 0) = true -> (1 <= k)%nat)).
Proof.
  induction fuel as [|fuel IH]; intros lbl lb tb ws s HL; [lia|].
  cbn [flow_blanks].
  unfold bind at 1, peek at 1, peekn at 1. cbn [peek_nth str_ops].
  set (c := nth 0 (chars_of s) 0).
  assert (REC : forall lbl' lb' tb' ws' (s1 : sc strin) k1, chars_of s1 = skipn k1 (chars_of s) -> (1 <= k1)%nat ->
            (1 <= length (chars_of s))%nat ->
            post (flow_blanks str_ops fuel lbl' lb' tb' ws' s1)
              (fun _ s' => exists k, chars_of s' = skipn k (chars_of s) /\ (is_blank c || is_break c = true -> (1 <= k)%nat))).
  { intros lbl' lb' tb' ws' s1 k1 H1 Hk1 HN.
    eapply post_weaken; [apply IH; rewrite H1, skipn_length; unfold chr in *; lia|].
    intros _ s' (k2 & A & _). exists (k1 + k2)%nat. rewrite A, H1, skipn_add. split; [reflexivity|intros; lia]. }
  assert (NE : is_blank c || is_break c = true -> (1 <= length (chars_of s))%nat).
  { unfold c. destruct (chars_of s); cbn; [discriminate | intros; lia]. }
  destruct (is_blank c) eqn:EB.
  - specialize (NE eq_refl).
    assert (STEP : forall ws', post ((skip_blank str_ops ;;; look str_ops 1 ;;; flow_blanks str_ops fuel lbl lb tb ws') s)
              (fun _ s' => exists k, chars_of s' = skipn k (chars_of s) /\ (true || is_break c = true -> (1 <= k)%nat))).
    { intros ws'. unfold skip_blank, bind at 1, bind at 1, in_skip at 1, modify at 1.
      unfold adv_mark at 1, modify at 1. unfold bind at 1, look at 1. cbn [lookahead str_ops].
      eapply post_weaken; [apply (REC lbl lb tb ws' _ 1%nat); [cbn; apply tl_skipn1 | lia | exact NE]|].
      intros _ s' (k & A & B). exists k. split; [exact A|]. intros _. apply B. reflexivity. }
    destruct lbl.
    + unfold bind at 1, col_lt_indent at 1, gets at 1.
      destruct ((c =? 9) && (Z.of_N (m_col (sc_mark s)) <? sc_indent s)%Z).
      * unfold bind, mark, gets, fail. exact I.
      * apply STEP.
    + apply STEP.
  - destruct (is_break c) eqn:EK.
    + specialize (NE eq_refl).
      unfold bind at 1, look at 1. cbn [lookahead str_ops].
      set (s0 := set_in {| si_chars := chars_of s; si_look := Nat.max (si_look (sc_in s)) 2 |} s).
      assert (STEP : forall lbl' lb' tb' ws',
                post ((skip_break str_ops ;;; look str_ops 1 ;;; flow_blanks str_ops fuel lbl' lb' tb' ws') s0)
                  (fun _ s' => exists k, chars_of s' = skipn k (chars_of s) /\ (false || true = true -> (1 <= k)%nat))).
      { intros lbl' lb' tb' ws'. apply post_bind.
        eapply post_weaken; [apply (skip_break_spec s0); exact EK|].
        intros _ s1 (k1 & A1 & Hk1). unfold bind at 1, look at 1. cbn [lookahead str_ops].
        eapply post_weaken; [apply (REC lbl' lb' tb' ws' _ k1); [exact A1 | exact Hk1 | exact NE]|].
        intros _ s' (k & A & B). exists k. split; [exact A|]. intros _. apply B. reflexivity. }
      destruct lbl; apply STEP.
    + cbn. exists 0%nat. split; [reflexivity | intros; discriminate].
Qed.

(* the outer loop of scan_flow_scalar, named *)
Definition flow_go (F : nat) (single : bool) (start : marker) :=
  fix go (f : nat) (acc : list chr) (lb : bool) (tb : N) (ws : list chr) : @M strin (list chr) :=
     match f with
     | O => oof
     | S f =>
       look str_ops 4 ;;;
       s <- get ;;
       di <- (if m_col (sc_mark s) =? 0 then next_is_document_indicator str_ops else ret false) ;;
       if di then fail 70 start else
       z <- next_is str_ops is_z ;;
       if z then fail 71 start else
       lt <- col_lt_indent ;;
       if lt then fail 72 start else
       r <- consume_nonws str_ops F single acc start ;;
       let '(acc, lbl) := r in
       c <- look_ch str_ops ;;
       if (single && (c =? 39)) || (negb single && (c =? 34)) then ret acc
       else
         r <- flow_blanks str_ops F lbl lb tb ws ;;
         let '(lbl, lb, tb, ws) := r in
         if lbl then
           if negb lb then go f (nls tb acc) false 0 ws
           else if tb =? 0 then go f (32 :: acc) false 0 ws
           else go f (nls tb acc) false 0 ws
         else go f (ws ++ acc) lb tb []
     end.

(* what scan_flow_scalar does once its loop has stopped at the closing quote *)
Definition flow_scalar_tail (F : nat) (single : bool) (start : marker) (str : list chr) : @M strin token :=
  skip_non_blank str_ops ;;; skip_ws_to_eol str_ops F SkipYes ;;;
  c <- peek str_ops ;; s <- get ;;
  let fl := 0 <? sc_flow_level s in
  if (((c =? 44) || (c =? 125) || (c =? 93)) && fl) || is_breakz c
     || ((c =? 58) && negb fl && (m_line start =? m_line (sc_mark s))) || ((c =? 58) && fl)
  then ret ({| sp_start := start; sp_end := sc_mark s |},
            TScalar (if single then SingleQuoted else DoubleQuoted) (rev str))
  else fail 74 (sc_mark s).

Lemma scan_flow_scalar_tail F single :
  scan_flow_scalar str_ops F single
  = (start <- mark ;; skip_non_blank str_ops ;;; str <- flow_go F single start F [] false 0 [] ;;
     flow_scalar_tail F single start str).
Proof. reflexivity. Qed.

Lemma next_is_document_indicator_keeps (s : sc strin) :
  (4 <= si_look (sc_in s))%nat -> exists b, next_is_document_indicator str_ops s = Ok (b, s).
Proof.
  intros HL. unfold next_is_document_indicator.
  unfold bind at 1, assert_buflen at 1. cbn [buflen str_ops]. rewrite (proj2 (Nat.ltb_ge _ _) HL).
  unfold bind at 1, peekn at 1. cbn [peek_nth str_ops].
  destruct (is_blank_or_breakz (nth 3 (chars_of s) 0)); [|eexists; reflexivity].
  rewrite (bind_Ok _ _ _ _ _ (next_3_are_at 46 46 46 s ltac:(lia))).
  match goal with |- context [if ?b then _ else _] => destruct b end; [eexists; reflexivity|].
  eexists. apply next_3_are_at. lia.
Qed.

(* the loop never returns (and never panics or runs out of fuel) on input without the closing quote *)
Ltac nlia := unfold chr in *; lia.

Lemma flow_go_no_close F single start : forall n f acc lb tb ws (s : sc strin),
  (length (chars_of s) < n)%nat -> (n <= f)%nat -> (n <= F)%nat -> qfree single (chars_of s) ->
  post (flow_go F single start f acc lb tb ws s) (fun _ _ => False).
Proof.
  induction n as [|n IH]; intros f acc lb tb ws s HLen Hf HF HQ; [nlia|].
  destruct f as [|f]; [nlia|]. cbn [flow_go].
  unfold bind at 1, look at 1. cbn [lookahead str_ops].
  set (s0 := set_in {| si_chars := chars_of s; si_look := Nat.max (si_look (sc_in s)) 4 |} s).
  unfold bind at 1, get at 1.
  assert (DI : exists b, (if m_col (sc_mark s0) =? 0 then next_is_document_indicator str_ops else ret false) s0 = Ok (b, s0)).
  { destruct (m_col (sc_mark s0) =? 0); [apply next_is_document_indicator_keeps; cbn; nlia | eexists; reflexivity]. }
  destruct DI as (b & DI). rewrite (bind_Ok _ _ _ _ _ DI). destruct b; [exact I|].
  unfold bind at 1, next_is at 1, bind at 1, peek at 1, peekn at 1. cbn [peek_nth str_ops sc_in s0 set_in upd si_chars].
  unfold ret at 1. set (c := nth 0 (chars_of s) 0).
  destruct (is_z c) eqn:EZ; [exact I|].
  unfold bind at 1, col_lt_indent at 1, gets at 1.
  destruct (Z.of_N (m_col (sc_mark s0)) <? sc_indent s0)%Z; [exact I|].
  assert (HQ0 : qfree single (chars_of s0)) by exact HQ.
  assert (HL0 : (length (chars_of s0) < F)%nat) by (change (chars_of s0) with (chars_of s); nlia).
  apply post_bind. eapply post_weaken; [apply (consume_nonws_spec F single acc start s0 HQ0 HL0)|].
  intros [acc1 lbl1] s1 (k1 & A1 & B1 & C1). change (chars_of s0) with (chars_of s) in A1, B1, C1. fold c in B1, C1.
  unfold bind at 1, look_ch at 1, bind at 1, look at 1. cbn [lookahead str_ops].
  unfold peek at 1, peekn at 1. cbn [peek_nth str_ops sc_in set_in upd si_chars].
  assert (HQ1 : qfree single (chars_of s1)) by (rewrite A1; apply qfree_skipn; exact HQ).
  pose proof (qfree_head single _ HQ1) as HH1.
  assert (NOQ : (single && (nth 0 (chars_of s1) 0 =? 39)) || (negb single && (nth 0 (chars_of s1) 0 =? 34)) = false).
  { destruct single; cbn [qchar] in HH1; cbn [andb negb orb]; unfold chr in *; rewrite HH1; reflexivity. }
  unfold chr in *. rewrite NOQ.
  set (s1' := set_in {| si_chars := chars_of s1; si_look := Nat.max (si_look (sc_in s1)) 1 |} s1).
  assert (HL1 : (length (chars_of s1') < F)%nat).
  { change (chars_of s1') with (chars_of s1). rewrite A1, skipn_length. nlia. }
  apply post_bind. eapply post_weaken; [apply (flow_blanks_spec F lbl1 lb tb ws s1' HL1)|].
  intros [[[lbl2 lb2] tb2] ws2] s2 (k2 & A2 & B2). change (chars_of s1') with (chars_of s1) in A2, B2.
  (* every continuation is the loop again, on strictly less input *)
  assert (NE : (1 <= length (chars_of s))%nat).
  { unfold c in EZ. destruct (chars_of s); [cbn in EZ; discriminate | cbn; nlia]. }
  assert (DEC : (length (chars_of s2) < n)%nat).
  { rewrite A2, A1, skipn_add, skipn_length.
    destruct (is_blank_or_breakz c) eqn:EBB.
    - specialize (C1 eq_refl). subst k1. cbn [skipn] in A1. rewrite A1 in B2. fold c in B2.
      assert (K2 : (1 <= k2)%nat).
      { apply B2. unfold is_blank_or_breakz, is_breakz in EBB. rewrite EZ, orb_false_r in EBB. exact EBB. }
      nlia.
    - specialize (B1 eq_refl). nlia. }
  assert (HQ2 : qfree single (chars_of s2)) by (rewrite A2; apply qfree_skipn; exact HQ1).
  assert (GO : forall acc' lb' tb' ws', post (flow_go F single start f acc' lb' tb' ws' s2) (fun _ _ => False)).
  { intros. apply IH; [exact DEC | nlia | nlia | exact HQ2]. }
  destruct lbl2; [destruct (negb lb2); [apply GO | destruct (tb2 =? 0); apply GO] | apply GO].
Qed.

(* ---- ANY scanner state about to scan a quoted scalar whose remaining input holds no closing quote character: the scan
        ends in an error (end of input 71; or, earlier, a document marker 70, indentation 72 / 73, a bad escape 30-32) --
        never in a token, a panic or exhausted fuel ---- *)
Theorem open_quoted_scalar_rejected F single (s : sc strin) body :
  chars_of s = qchar single :: body -> qfree single body -> (length body < F)%nat ->
  errs (scan_flow_scalar str_ops F single s).
Proof.
  intros HC HQ HL. rewrite scan_flow_scalar_tail.
  unfold bind at 1, mark at 1, gets at 1.
  unfold bind at 1. unfold skip_non_blank at 1, bind at 1, in_skip at 1, modify at 1.
  unfold bind at 1, adv_mark at 1, modify at 1. unfold modify at 1.
  apply errs_bind. apply post_false_errs.
  apply (flow_go_no_close F single (sc_mark s) (S (length body))); [ | exact HL | exact HL | ].
  - cbn [sc_in set_lws set_flags set_mark set_in upd si_chars skip1 str_ops]. rewrite HC. cbn [tl]. nlia.
  - cbn [sc_in set_lws set_flags set_mark set_in upd si_chars skip1 str_ops]. rewrite HC. exact HQ.
Qed.

Lemma errs_post {A} (o : outcome (A * sc strin)) P : errs o -> post o P.
Proof. intros (e & m & ->). exact I. Qed.

Lemma save_simple_key_post (s : sc strin) :
  sorted_from (sc_indent s) (sc_indents s) = true ->
  post (save_simple_key s) (fun _ s' => sc_in s' = sc_in s).
Proof.
  intros HS. unfold save_simple_key. unfold bind at 1, get at 1.
  destruct (sc_ska s); [|reflexivity].
  destruct ((sc_flow_level s =? 0) && (sc_indent s =? Z.of_N (m_col (sc_mark s)))%Z) eqn:E.
  - destruct (sc_indents s) as [|i r] eqn:EI.
    + exfalso. cbn [sorted_from] in HS. apply andb_prop in E. destruct E as [_ E].
      apply Z.eqb_eq in HS, E. lia.
    + reflexivity.
  - reflexivity.
Qed.

Theorem open_quoted_scalar_fetch_rejected F single (s : sc strin) body :
  sorted_from (sc_indent s) (sc_indents s) = true ->
  chars_of s = qchar single :: body -> qfree single body -> (length body < F)%nat ->
  errs (fetch_flow_scalar str_ops F single s).
Proof.
  intros HS HC HQ HL. unfold fetch_flow_scalar. apply post_false_errs.
  apply post_bind. eapply post_weaken; [apply (save_simple_key_post s HS)|].
  intros u s1 H1. cbn beta in H1. unfold bind at 1, disallow_simple_key at 1, modify at 1.
  apply post_bind. apply errs_post.
  apply (open_quoted_scalar_rejected F single _ body); [ | exact HQ | exact HL ].
  cbn [sc_in set_ska set_flags]. rewrite H1. exact HC.
Qed.

(* ---- the same from [fetch_next_token]: ANY started scanner state that stands on an opening quote while the rest of the
        input holds no closing quote (well-formed indentation stack, no required pending key): the fetch ends in an error.
        First for the part of fetch_next_token behind skip_to_next_token ---- *)
Lemma open_quoted_scalar_rest_rejected F single (s1 : sc strin) body :
  chars_of s1 = qchar single :: body -> qfree single body -> (length body < F)%nat ->
  sorted_from (sc_indent s1) (sc_indents s1) = true ->
  (sc_flow_level s1 <> 0 \/ forall k, In k (sc_sks s1) -> sk_required k = false) ->
  errs (fetch_rest F s1).
Proof.
  intros HC HQ HL HS HR.
  destruct (fetch_rest_dispatch F s1 HS HR) as (s4 & E & C4 & _ & _ & _ & _ & _ & HS4 & _).
  { rewrite HC. split; [destruct single; discriminate|]. right. destruct single; repeat split; discriminate. }
  rewrite E. rewrite HC in C4.
  destruct (Z.ltb_spec (Z.of_N (m_col (sc_mark s4))) (sc_indent s4)) as [HI|HI].
  - unfold dispatch. apply Z.ltb_lt in HI. rewrite HI. apply errs_Err.
  - rewrite (dispatch_run F s4 HI), C4.
    replace (Dispatch.dispatch _ _ _ _) with (Dispatch.DFlowScalar single) by (destruct single; reflexivity).
    exact (open_quoted_scalar_fetch_rejected F single s4 body HS4 C4 HQ HL).
Qed.

Theorem open_quoted_scalar_next_rejected F single (s : sc strin) body :
  sc_stream_start s = true ->
  chars_of s = qchar single :: body -> qfree single body -> (length body < F)%nat ->
  sorted_from (sc_indent s) (sc_indents s) = true ->
  (sc_flow_level s <> 0 \/ forall k, In k (sc_sks s) -> sk_required k = false) ->
  errs (fetch_next_token str_ops F s).
Proof.
  intros HSS HC HQ HL HS HR.
  rewrite (fetch_next_token_rest F s HSS); [ | lia | rewrite HC; destruct single; repeat split; discriminate ].
  exact (open_quoted_scalar_rest_rejected F single (looked (looked s 1) 1) body HC HQ HL HS HR).
Qed.

(* (4) mis-indented block entries / keys; a second root node behind a scalar root *)
Close Scope N_scope.

(* scanner half: in block context a key / entry in a column DEEPER than the innermost open block collection opens a new
   collection (a Block*Start token is queued and the column is pushed) -- it does not continue the open one *)
Theorem roll_indent_deeper_starts_collection (s : sc strin) col tk mk :
  sc_flow_level s = 0%N -> (sc_indent s < Z.of_N col)%Z ->
  (forall i r, sc_indents s = i :: r -> in_needs_block_end i = true) ->
  (N.of_nat (length (sc_indents s)) < BLOCK_NESTING_MAX)%N ->
  roll_indent col None tk mk s
  = Ok (tt, set_tokens (sc_tokens s ++ [(span_empty mk, tk)])
              (set_indent (Z.of_N col) ({| in_indent := sc_indent s; in_needs_block_end := true |} :: sc_indents s) s)).
Proof.
  intros HF HL HI HN. unfold roll_indent. unfold bind at 1, get at 1. rewrite HF. cbn [N.ltb N.compare].
  assert (E1 : (sc_indent s <=? Z.of_N col)%Z = true) by (apply Z.leb_le; lia). rewrite E1.
  assert (E2 : (sc_indent s <? Z.of_N col)%Z = true) by (apply Z.ltb_lt; lia).
  apply N.leb_gt in HN.
  destruct (sc_indents s) as [|i r] eqn:EI.
  - rewrite E2, HN. reflexivity.
  - rewrite (HI i r eq_refl). cbn [negb]. rewrite E2, HN. reflexivity.
Qed.

(* /repo 99c201b: ... unless BLOCK_NESTING_MAX (= 255) block collections are open already: then the new collection is the
   scan error "recursion limit exceeded" (site 46) at the current mark.  [effective_indents]: roll_indent first drops a
   one-column indent (pushed behind ':' / '-' in front of a line break or a flow collection) that the new column reaches *)
Definition effective_indents (s : sc strin) (col : N) : Z * list indent_rec :=
  if (sc_indent s <=? Z.of_N col)%Z then
    match sc_indents s with
    | i :: r => if negb (in_needs_block_end i) then (in_indent i, r) else (sc_indent s, sc_indents s)
    | [] => (sc_indent s, sc_indents s)
    end
  else (sc_indent s, sc_indents s).

Theorem block_nesting_limit_rejected (s : sc strin) col number tk mk :
  sc_flow_level s = 0%N ->
  (fst (effective_indents s col) < Z.of_N col)%Z ->
  (BLOCK_NESTING_MAX <= N.of_nat (length (snd (effective_indents s col))))%N ->
  roll_indent col number tk mk s = Err 46 (sc_mark s).
Proof.
  intros HF HL HN. unfold roll_indent. unfold bind at 1, get at 1. rewrite HF. cbn [N.ltb N.compare].
  fold (effective_indents s col).
  destruct (effective_indents s col) as [ind inds]. cbn [fst snd] in HL, HN.
  apply Z.ltb_lt in HL. apply N.leb_le in HN. rewrite HL, HN. reflexivity.
Qed.

(* the plain case: every open indentation level is a block collection and 255 (or more) of them are open *)
Corollary block_nesting_limit_plain_rejected (s : sc strin) col number tk mk :
  sc_flow_level s = 0%N -> (sc_indent s < Z.of_N col)%Z ->
  (forall i r, sc_indents s = i :: r -> in_needs_block_end i = true) ->
  (255 <= length (sc_indents s))%nat ->
  roll_indent col number tk mk s = Err 46 (sc_mark s).
Proof.
  intros HF HL HI HN.
  assert (E : effective_indents s col = (sc_indent s, sc_indents s)).
  { unfold effective_indents. destruct (sc_indent s <=? Z.of_N col)%Z; [|reflexivity].
    destruct (sc_indents s) as [|i r] eqn:EI; [reflexivity|]. rewrite (HI i r eq_refl). reflexivity. }
  apply block_nesting_limit_rejected; [exact HF | rewrite E; exact HL | rewrite E; cbn [snd]].
  change BLOCK_NESTING_MAX with 255%N. lia.
Qed.

(* parser half: where a block mapping expects its next key (or its end) anything else -- in particular the
   BlockMappingStart / BlockSequenceStart / scalar of a mis-indented line -- is error site 5 at that token; where a block
   sequence expects its next entry, site 8 *)
Definition continues_block_mapping (tk : tok) : bool :=
  match tk with TKey | TValue | TBlockEnd => true | _ => false end.
Definition continues_block_sequence (tk : tok) : bool :=
  match tk with TBlockEntry | TBlockEnd => true | _ => false end.

Theorem misindented_key_rejected p sp tk r :
  p_state p = SBlockMappingKey -> toks_ahead p = (sp, tk) :: r -> continues_block_mapping tk = false ->
  state_machine p = Parser.Err (PErr 5 (sp_start sp)).
Proof.
  intros HS HT HC. unfold state_machine. rewrite HS. unfold block_mapping_key. rewrite (peek_norm _ _ _ HT).
  destruct tk; cbn in HC; try discriminate; reflexivity.
Qed.

Theorem misindented_entry_rejected p sp tk r :
  p_state p = SBlockSequenceEntry -> toks_ahead p = (sp, tk) :: r -> continues_block_sequence tk = false ->
  state_machine p = Parser.Err (PErr 8 (sp_start sp)).
Proof.
  intros HS HT HC. unfold state_machine. rewrite HS. unfold block_sequence_entry. rewrite (peek_norm _ _ _ HT).
  destruct tk; cbn in HC; try discriminate; reflexivity.
Qed.

(* a document whose root node is a scalar, followed by any token that can only be more content: every such TOKEN stream,
   and every TEXT whose token stream has this shape, is rejected with site 3 at that token *)
Theorem second_root_after_scalar_rejected sp0 sp1 st v sp2 tk r keep se fuel :
  content_tok tk = true ->
  run_end (5 + fuel) (init_parser ((sp0, TStreamStart) :: (sp1, TScalar st v) :: (sp2, tk) :: r) keep) se []
  = PParseErr 3 (sp_start sp2).
Proof.
  intros HC. cbn [Nat.add].
  erewrite run_ok1; [ | cbn; discriminate | reflexivity ].
  erewrite run_ok1; [ | cbn; discriminate | reflexivity ].
  erewrite run_ok1; [ | cbn; discriminate | reflexivity ].
  apply (second_root_run_rejected _ sp2 tk r fuel se); [reflexivity | reflexivity | exact HC].
Qed.

(* stated as an equation and used by rewriting: left to conversion on a parser with fuel 5 + n, Qed does not come back *)
Lemma run_end_eq f p se acc : run_end f p se acc = snd (parse_all f p se acc).
Proof. reflexivity. Qed.

Theorem second_root_after_scalar_text_rejected s sp0 sp1 st v sp2 tk r :
  fst (scan_of s) = (sp0, TStreamStart) :: (sp1, TScalar st v) :: (sp2, tk) :: r -> content_tok tk = true ->
  snd (run_str s) = PParseErr 3 (sp_start sp2).
Proof.
  intros HT HC. destruct (run_str_scan_of s) as (pf & Hpf & ->). rewrite HT.
  assert (HO : exists fuel, (pf = 5 + fuel)%nat) by (exists (pf - 5)%nat; lia).
  destruct HO as (fuel & ->).
  generalize (snd (scan_of s)). intros se.
  pose proof (second_root_after_scalar_rejected sp0 sp1 st v sp2 tk r false se fuel HC) as H.
  rewrite run_end_eq in H. exact H.
Qed.

(* (5) the recorded texts: three repaired (now rejected), one still accepted *)
Open Scope N_scope.
Definition stray_closer_text : list N := [91;32;63;32;93;32;93].                               (* [ ? ] ]            *)
Definition empty_explicit_key_text : list N := [91;32;63;32;93].                               (* [ ? ]              *)
Definition multiline_flow_pair_key_text : list N :=                                             (* - {} NL - [ DQ a NL b DQ: v ] *)
  [45;32;123;125;10;45;32;91;32;34;97;10;32;98;34;58;32;118;32;93;10].
Definition multiline_flow_pair_key_other_document_text : list N :=                              (* {} NL --- NL [ a NL b: v ] *)
  [123;125;10;45;45;45;10;91;32;97;10;32;98;58;32;118;32;93;10].
Definition long_flow_pair_key_text : list N := [91;32] ++ repeat 107 1025 ++ [58;32;118;32;93;10].  (* [ k^1025: v ]  *)
Definition longest_flow_pair_key_text : list N := [91;32] ++ repeat 107 1024 ++ [58;32;118;32;93;10]. (* [ k^1024: v ] *)
Definition long_flow_mapping_key_text : list N := [123;32] ++ repeat 107 1025 ++ [58;32;118;32;125;10]. (* { k^1025: v } *)
Definition flow_continuation_text : list N := [107;58;32;91;97;44;10;39;98;39;93;10].         (* k: [a,  NL 'b']   *)

(* repaired by /repo c5ad60c: the implementation now reports "did not find expected <document start>" at 6:1:6 *)
Lemma stray_closer_rejected :
  snd (run_str stray_closer_text) = PParseErr 3 {| m_index := 6; m_line := 1; m_col := 6 |}.
Proof. vm_compute. reflexivity. Qed.
(* ... and the legal "[ ? ]" is accepted (the repair does not reject too much) *)
Lemma empty_explicit_key_accepted : snd (run_str empty_explicit_key_text) = PDone.
Proof. vm_compute. reflexivity. Qed.

(* repaired by /repo ad74b3e: "illegal placement of ':' indicator" also behind an earlier flow mapping, in the same
   document and in an earlier one *)
Lemma multiline_flow_pair_key_text_rejected :
  snd (run_str multiline_flow_pair_key_text) = PScanErr 98 {| m_index := 15; m_line := 3; m_col := 3 |}.
Proof. vm_compute. reflexivity. Qed.
Lemma multiline_flow_pair_key_other_document_rejected :
  snd (run_str multiline_flow_pair_key_other_document_text) = PScanErr 98 {| m_index := 13; m_line := 4; m_col := 2 |}.
Proof. vm_compute. reflexivity. Qed.

(* repaired by /repo 57aa316: "illegal placement of ':' indicator" at the ':' behind a 1025-character key of a flow-sequence
   pair; a key of exactly 1024 characters and a 1025-character key of a flow MAPPING stay accepted *)
Lemma long_flow_pair_key_text_rejected :
  snd (run_str long_flow_pair_key_text) = PScanErr 98 {| m_index := 1027; m_line := 1; m_col := 1027 |}.
Proof. vm_compute. reflexivity. Qed.
Lemma longest_flow_pair_key_accepted : snd (run_str longest_flow_pair_key_text) = PDone.
Proof. vm_compute. reflexivity. Qed.
Lemma long_flow_mapping_key_accepted : snd (run_str long_flow_mapping_key_text) = PDone.
Proof. vm_compute. reflexivity. Qed.

(* still accepted (known finding) *)
Lemma flow_continuation_at_block_indentation_accepted : snd (run_str flow_continuation_text) = PDone.
Proof. vm_compute. reflexivity. Qed.

Lemma long_flow_pair_key_is_damaged : damaged_long_key long_flow_pair_key_text.
Proof. exact long_flow_pair_key_damaged. Qed.
Lemma flow_continuation_is_damaged : damaged_known flow_continuation_text.
Proof.
  change flow_continuation_text with ([107] ++ [58; 32; 91] ++ [97] ++ [44; 10; 39] ++ [98] ++ [39; 93; 10]).
  apply DFlowContinuationAtBlockIndent; (split; [discriminate | repeat constructor; cbv; discriminate]).
Qed.

Definition C06_full_for (ill_formed : list N -> Prop) : Prop := forall s, ill_formed s -> snd (run_str s) <> PDone.

Lemma C06_full_for_refuted_by_known (ill_formed : list N -> Prop) :
  ill_formed flow_continuation_text -> ~ C06_full_for ill_formed.
Proof. intros H HF. apply (HF _ H). exact flow_continuation_at_block_indentation_accepted. Qed.

(* what IS proved of the full statement, for every text: the partial form *)
Definition C06_full_partial_statement : Prop :=
  forall s, (exists e m, snd (scan_of s) = SError e m) \/ (exists n, snd (scan_of s) = SPanic n)
            \/ flow_balanced (fst (scan_of s)) [] = false ->
            snd (run_str s) <> PDone.

(* (6) composition: a scanner-layer rejection at ANY point the scanner reaches rejects the whole text *)
(* [reach F n s s']: the token iterator, started in [s], delivers [n] tokens and is then in state [s'] *)
Inductive reach (F : nat) : nat -> sc strin -> sc strin -> Prop :=
| reach_0 s : reach F 0 s s
| reach_S n s t s1 s2 : next_token str_ops F s = Ok (Some t, s1) -> reach F n s1 s2 -> reach F (S n) s s2.

Lemma scan_all_reach F n s s' : reach F n s s' ->
  forall fuel acc, exists acc', scan_all str_ops F (n + fuel) s acc = scan_all str_ops F fuel s' acc'.
Proof.
  induction 1 as [s|n s t s1 s2 HN HR IH]; intros fuel acc.
  - exists acc. reflexivity.
  - cbn [Nat.add scan_all]. rewrite HN. apply IH.
Qed.

Theorem reachable_scan_error_rejected l n s e m :
  reach (scan_fuel l) n (init_sc {| si_chars := l; si_look := 0 |}) s ->
  (n < 4 * scan_fuel l + 20)%nat ->
  next_token str_ops (scan_fuel l) s = Err e m ->
  snd (run_str l) <> PDone.
Proof.
  intros HR Hn HE. apply scan_error_rejected. left. exists e, m. unfold scan_of.
  assert (HO : exists fuel, (4 * scan_fuel l + 20 = n + S fuel)%nat) by (exists (4 * scan_fuel l + 19 - n)%nat; lia).
  destruct HO as (fuel & ->).
  destruct (scan_all_reach _ _ _ _ HR (S fuel) []) as (acc' & ->).
  cbn [scan_all]. rewrite HE. reflexivity.
Qed.

(* with an empty token queue a failing [fetch_next_token] is enough *)
Corollary reachable_fetch_error_rejected l n s e m :
  reach (scan_fuel l) n (init_sc {| si_chars := l; si_look := 0 |}) s ->
  (n < 4 * scan_fuel l + 20)%nat ->
  sc_stream_end s = false -> sc_token_available s = false -> sc_tokens s = [] ->
  fetch_next_token str_ops (scan_fuel l) s = Err e m ->
  snd (run_str l) <> PDone.
Proof.
  intros HR Hn H1 H2 H3 HE. apply (reachable_scan_error_rejected l n s e m HR Hn).
  apply next_token_fetch_err; try assumption. unfold scan_fuel. lia.
Qed.

Corollary reachable_fetch_errs_rejected l n s :
  reach (scan_fuel l) n (init_sc {| si_chars := l; si_look := 0 |}) s ->
  (n < 4 * scan_fuel l + 20)%nat ->
  sc_stream_end s = false -> sc_token_available s = false -> sc_tokens s = [] ->
  errs (fetch_next_token str_ops (scan_fuel l) s) ->
  snd (run_str l) <> PDone.
Proof. intros HR Hn H1 H2 H3 (e & m & HE). exact (reachable_fetch_error_rejected l n s e m HR Hn H1 H2 H3 HE). Qed.

(* the scanner state behind the StreamStart token *)
Definition after_stream_start (l : list N) : sc strin := {|
  sc_in := {| si_chars := l; si_look := Nat.max 0 1 |}; sc_mark := {| m_index := 0; m_line := 1; m_col := 0 |};
  sc_tokens := []; sc_stream_start := true; sc_stream_end := false; sc_adjacent := 0; sc_ska := true;
  sc_sks := [{| sk_possible := false; sk_required := false; sk_token_number := 0; sk_mark := mk0 |}];
  sc_indent := (-1)%Z; sc_indents := []; sc_flow_level := 0; sc_tokens_parsed := 1;
  sc_token_available := false; sc_lws := true; sc_ifms := [] |}.

Lemma first_token F l :
  next_token str_ops (S (S F)) (init_sc {| si_chars := l; si_look := 0 |})
  = Ok (Some (span_empty {| m_index := 0; m_line := 1; m_col := 0 |}, TStreamStart), after_stream_start l).
Proof. reflexivity. Qed.

(* the state behind StreamStart is reached after one token *)
Lemma reach_after_stream_start l :
  reach (scan_fuel l) 1 (init_sc {| si_chars := l; si_look := 0 |}) (after_stream_start l).
Proof.
  destruct (scan_fuel_ge l 2) as (F' & ->); [lia|]. eapply reach_S; [apply first_token | apply reach_0].
Qed.

(* the first fetch after StreamStart fails => the whole text is rejected *)
Lemma first_fetch_error_rejected l :
  errs (fetch_next_token str_ops (scan_fuel l) (after_stream_start l)) -> snd (run_str l) <> PDone.
Proof.
  apply (reachable_fetch_errs_rejected l 1 (after_stream_start l) (reach_after_stream_start l)); try reflexivity. lia.
Qed.

(* EVERY text that consists of an opening quote and any characters other than that quote is rejected *)
Theorem open_quoted_text_rejected single body :
  qfree single body -> snd (run_str (qchar single :: body)) <> PDone.
Proof.
  intros HQ. apply first_fetch_error_rejected.
  apply (open_quoted_scalar_next_rejected _ single _ body); try reflexivity; try exact HQ.
  - unfold scan_fuel. cbn [length]. lia.
  - right. intros k [<-|[]]. reflexivity.
Qed.

(* the same for a text that starts with a document-end marker followed by content on its line *)
Theorem content_after_document_end_text_rejected b ws c rest :
  (b = 32 \/ b = 9) -> blank_run SkipYes ws -> is_content_start c ->
  snd (run_str (46 :: 46 :: 46 :: b :: ws ++ c :: rest)) <> PDone.
Proof.
  intros Hb HB HC. apply first_fetch_error_rejected.
  set (l := 46 :: 46 :: 46 :: b :: ws ++ c :: rest).
  assert (HF : (S (length ws) < scan_fuel l)%nat).
  { unfold scan_fuel, l. cbn [length]. rewrite app_length. cbn [length]. lia. }
  rewrite (content_after_document_end_rejected (scan_fuel l) (after_stream_start l) b ws c rest _ [] eq_refl eq_refl Hb HB HC
             eq_refl eq_refl eq_refl ltac:(intros k [<-|[]]; reflexivity) HF).
  apply errs_Err.
Qed.

(* (7) a quoted implicit key that spans lines (block context) *)
(* ANY state in block context standing on the closing quote of a quoted scalar that began on an EARLIER line, followed by
   blanks and ':' (the scalar would be an implicit key): site 74 ("invalid trailing content after double-quoted scalar")
   at the ':' -- a quoted implicit key may not span lines *)
Theorem multiline_quoted_key_rejected F single start str (s : sc strin) q ws rest :
  chars_of s = q :: ws ++ 58 :: rest -> blank_run SkipYes ws ->
  sc_flow_level s = 0 -> m_line start <> m_line (sc_mark s) -> (length ws < F)%nat ->
  flow_scalar_tail F single start str s = Err 74 (adv (N.of_nat (length ws)) (adv 1 (sc_mark s))).
Proof.
  intros HC HB HFL HLn HF. unfold flow_scalar_tail.
  unfold bind at 1. unfold skip_non_blank at 1, bind at 1, in_skip at 1, modify at 1.
  unfold bind at 1, adv_mark at 1, modify at 1. unfold modify at 1.
  match goal with |- context [bind (skip_ws_to_eol str_ops F SkipYes) ?f ?st] => set (s1 := st) end.
  assert (HC1 : chars_of s1 = ws ++ 58 :: rest).
  { unfold s1. cbn [sc_in set_lws set_flags set_mark set_in upd si_chars skip1 str_ops]. rewrite HC. reflexivity. }
  assert (HSt : stops_ws SkipYes 58) by (repeat split; discriminate).
  destruct (skip_ws_to_eol_run ws F SkipYes s1 58 rest HC1 HB HSt HF) as (lk & E).
  rewrite (bind_Ok _ _ _ _ _ E).
  unfold bind at 1, peek at 1, peekn at 1. cbn [peek_nth str_ops sc_in set_mark with_chars set_in upd si_chars nth].
  unfold bind at 1, get at 1.
  cbn [sc_flow_level sc_mark set_mark with_chars set_in upd s1 set_lws set_flags]. rewrite HFL.
  change (0 <? 0) with false. change (58 =? 44) with false. change (58 =? 125) with false. change (58 =? 93) with false.
  change (is_breakz 58) with false. change (58 =? 58) with true. cbn [andb orb negb].
  assert (EL : (m_line start =? m_line (sc_mark s)) = false) by (apply N.eqb_neq; exact HLn).
  unfold adv at 1. cbn [m_line]. unfold adv at 1. cbn [m_line]. rewrite EL. cbn [orb]. reflexivity.
Qed.

(* (8) text-level families: a fixed first part, then ANY continuation of the stated shape *)
(* evaluation of a scanner function on a state whose input has a concrete beginning and a symbolic rest; the fuel must be
   a sum  k + F'  whose literal part k covers the evaluation.  [reach_step]: one step of the token iterator *)
Ltac eval_exact :=
  match goal with |- ?lhs = _ => let r := eval vm_compute in lhs in exact (@eq_refl _ r <: lhs = r) end.
Ltac reach_step := eapply reach_S; [eval_exact|].

(* skip_to_next_token over one space / one line feed *)
Definition after_space (s : sc strin) : sc strin :=
  set_mark (adv 1 (sc_mark s)) (with_chars s (tl (chars_of s)) (Nat.max (si_look (sc_in s)) 1)).
Lemma skip_to_next_token_space F (s : sc strin) :
  nth 0 (chars_of s) 0 = 32 -> skip_to_next_token str_ops (S F) s = skip_to_next_token str_ops F (after_space s).
Proof. intros HC. rewrite skip_to_next_token_head. cbv zeta. unfold chr in *. rewrite HC. reflexivity. Qed.

Definition after_newline (s : sc strin) : sc strin :=
  let s1 := set_lws true (set_mark (nlm (sc_mark s)) (with_chars s (tl (chars_of s)) (Nat.max (Nat.max (si_look (sc_in s)) 1) 2))) in
  if sc_flow_level s =? 0 then set_ska true s1 else s1.
Lemma skip_to_next_token_newline F (s : sc strin) :
  nth 0 (chars_of s) 0 = 10 ->
  skip_to_next_token str_ops (S F) s = skip_to_next_token str_ops F (after_newline s).
Proof.
  intros HC. rewrite skip_to_next_token_head. cbv zeta. unfold chr in *. rewrite HC.
  change (10 =? 9) with false. change (10 =? 32) with false. change (10 =? 10) with true. cbn [andb orb].
  unfold bind at 1, look at 1. cbn [lookahead str_ops].
  unfold bind at 1. unfold skip_linebreak at 1.
  unfold bind at 1. unfold next_2_are at 1, bind at 1, assert_buflen at 1. cbn [buflen str_ops sc_in looked with_chars set_in upd si_look].
  assert (E : forall a, Nat.ltb (Nat.max a 2) 2 = false) by (intros a; apply Nat.ltb_ge; lia). rewrite E.
  unfold bind at 1, peek at 1, peekn at 1. cbn [peek_nth str_ops sc_in set_in upd si_chars]. unfold chr in *; rewrite HC.
  unfold bind at 1, peekn at 1. cbn [peek_nth str_ops sc_in set_in upd si_chars]. unfold ret at 1.
  change (10 =? 13) with false. cbn [andb].
  unfold bind at 1, peek at 1, peekn at 1. cbn [peek_nth str_ops sc_in set_in upd si_chars]. unfold chr in *; rewrite HC.
  change (is_break 10) with true. cbn iota.
  unfold skip_nl at 1, bind at 1, in_skip at 1, modify at 1. unfold modify at 1.
  unfold bind at 1, flow_level at 1, gets at 1. cbn [sc_flow_level set_lws set_flags set_mark set_in upd looked with_chars].
  unfold after_newline.
  destruct (sc_flow_level s =? 0); unfold bind at 1, allow_simple_key, modify, ret; reflexivity.
Qed.

(* family 1: a block mapping whose first value opens a quoted scalar that is never closed (k: QUOTE ...) *)
Theorem open_quote_in_mapping_value_rejected single body :
  qfree single body -> snd (run_str ([107; 58; 32] ++ qchar single :: body)) <> PDone.
Proof.
  intros HQ. set (l := [107; 58; 32] ++ qchar single :: body).
  destruct (scan_fuel_ge l 18) as (F' & HF); [unfold l; cbn [length app]; lia|].
  assert (R : exists s5, reach (18 + F') 5 (init_sc {| si_chars := l; si_look := 0 |}) s5
                /\ chars_of s5 = 32 :: qchar single :: body /\ sc_tokens s5 = [] /\ sc_stream_end s5 = false
                /\ sc_token_available s5 = false /\ sc_stream_start s5 = true
                /\ sorted_from (sc_indent s5) (sc_indents s5) = true /\ sc_flow_level s5 = 0
                /\ (forall k, In k (sc_sks s5) -> sk_required k = false)).
  { unfold l. destruct single; cbn [app qchar]; eexists; (split;
    [ reach_step; reach_step; reach_step; reach_step; reach_step; apply reach_0
    | cbn; repeat split; intros k [<-|[]]; reflexivity ]). }
  destruct R as (s5 & R & HC & HT & HE & HA & HSS & HS & HFL & HR).
  rewrite <- HF in R.
  apply (reachable_fetch_errs_rejected l 5 s5 R); try assumption; [lia|].
  rewrite (fetch_next_token_started _ s5 HSS). rewrite HF. cbn [Nat.add].
  unfold bind at 1. rewrite skip_to_next_token_space; [|cbn [looked with_chars set_in upd sc_in si_chars]; rewrite HC; reflexivity].
  set (s6 := after_space (looked s5 1)).
  assert (HC6 : chars_of s6 = qchar single :: body).
  { unfold s6, after_space. cbn [looked with_chars set_in upd sc_in si_chars set_mark]. rewrite HC. reflexivity. }
  assert (HN : not_skipped (nth 0 (chars_of s6) 0)).
  { rewrite HC6. cbn [nth]. destruct single; repeat split; discriminate. }
  match goal with |- context [skip_to_next_token str_ops ?f s6] => set (f0 := f) end.
  assert (Hf : (0 < f0)%nat) by (unfold f0; lia).
  rewrite (skip_to_next_token_stop f0 s6 Hf HN). cbn beta iota.
  assert (HC7 : chars_of (looked s6 1) = qchar single :: body) by exact HC6.
  assert (HS7 : sorted_from (sc_indent (looked s6 1)) (sc_indents (looked s6 1)) = true) by exact HS.
  assert (HR7 : forall k, In k (sc_sks (looked s6 1)) -> sk_required k = false) by exact HR.
  apply (open_quoted_scalar_rest_rejected (S f0) single (looked s6 1) body HC7 HQ); [ | exact HS7 | right; exact HR7 ].
  unfold f0.
  unfold scan_fuel, l in HF. cbn [length app] in HF. lia.
Qed.

(* family 2: a block sequence whose first entry opens a quoted scalar that is never closed (- QUOTE ...) *)
Theorem open_quote_in_sequence_entry_rejected single body :
  qfree single body -> snd (run_str ([45; 32] ++ qchar single :: body)) <> PDone.
Proof.
  intros HQ. set (l := [45; 32] ++ qchar single :: body).
  destruct (scan_fuel_ge l 16) as (F' & HF); [unfold l; cbn [length app]; lia|].
  assert (R : exists s3, reach (16 + F') 3 (init_sc {| si_chars := l; si_look := 0 |}) s3
                /\ chars_of s3 = qchar single :: body /\ sc_tokens s3 = [] /\ sc_stream_end s3 = false
                /\ sc_token_available s3 = false /\ sc_stream_start s3 = true
                /\ sorted_from (sc_indent s3) (sc_indents s3) = true
                /\ (forall k, In k (sc_sks s3) -> sk_required k = false)).
  { unfold l. destruct single; cbn [app qchar]; eexists; (split;
    [ reach_step; reach_step; reach_step; apply reach_0
    | cbn; repeat split; intros k [<-|[]]; reflexivity ]). }
  destruct R as (s3 & R & HC & HT & HE & HA & HSS & HS & HR).
  rewrite <- HF in R.
  apply (reachable_fetch_errs_rejected l 3 s3 R); try assumption; [lia|].
  apply (open_quoted_scalar_next_rejected _ single s3 body HSS HC HQ); [ | exact HS | right; exact HR ].
  unfold scan_fuel, l. cbn [length app]. lia.
Qed.

(* ---- family 3: a tab as indentation of the first nested line of a block mapping:
        "a:" NL TAB, any blanks, then content, then anything ---- *)
Theorem tab_indentation_text_rejected ws c rest :
  blank_run SkipYes ws -> is_content_start c ->
  snd (run_str ([97; 58; 10; 9] ++ ws ++ c :: rest)) <> PDone.
Proof.
  intros HB HCc. set (l := [97; 58; 10; 9] ++ ws ++ c :: rest).
  destruct (scan_fuel_ge l 20) as (F' & HF); [unfold l; cbn [length app]; rewrite app_length; cbn [length]; lia|].
  assert (HW : (length ws <= F')%nat).
  { unfold scan_fuel, l in HF. cbn [length app] in HF. rewrite app_length in HF. cbn [length] in HF. lia. }
  assert (R : exists s5, reach (20 + F') 5 (init_sc {| si_chars := l; si_look := 0 |}) s5
                /\ chars_of s5 = 10 :: 9 :: ws ++ c :: rest /\ sc_tokens s5 = [] /\ sc_stream_end s5 = false
                /\ sc_token_available s5 = false /\ sc_stream_start s5 = true
                /\ sc_indents s5 <> [] /\ sc_flow_level s5 = 0 /\ sc_indent s5 = 1%Z
                /\ sc_mark s5 = {| m_index := 2; m_line := 1; m_col := 2 |}).
  { unfold l. cbn [app]. eexists. split.
    - reach_step. reach_step. reach_step. reach_step. reach_step. apply reach_0.
    - cbn. repeat split. discriminate. }
  destruct R as (s5 & R & HC & HT & HE & HA & HSS & HI & HFL & HIN & HM).
  rewrite <- HF in R.
  apply (reachable_fetch_errs_rejected l 5 s5 R); try assumption; [lia|].
  rewrite (fetch_next_token_started _ s5 HSS). rewrite HF. cbn [Nat.add].
  apply errs_bind.
  rewrite skip_to_next_token_newline; [|cbn [looked with_chars set_in upd sc_in si_chars]; rewrite HC; reflexivity].
  unfold after_newline. cbn [sc_flow_level looked with_chars set_in upd]. rewrite HFL. change (0 =? 0) with true. cbv iota zeta.
  rewrite (tab_indentation_rejected _ _ ws c rest); [apply errs_Err | | exact HB | exact HCc | exact HI | reflexivity | | lia].
  - cbn [sc_in set_ska set_flags set_lws set_mark set_in upd with_chars si_chars looked]. rewrite HC. reflexivity.
  - cbn [sc_mark sc_indent set_ska set_flags set_lws set_mark set_in upd with_chars looked]. rewrite HIN. cbn. lia.
Qed.

(* ---- family 4: a root scalar, then a document-end marker with content on its line:
        "a" NL "..." blank, any blanks, content, anything ---- *)
Theorem content_after_document_end_behind_scalar_rejected b ws c rest :
  (b = 32 \/ b = 9) -> blank_run SkipYes ws -> is_content_start c ->
  snd (run_str ([97; 10; 46; 46; 46] ++ b :: ws ++ c :: rest)) <> PDone.
Proof.
  intros Hb HB HCc. set (l := [97; 10; 46; 46; 46] ++ b :: ws ++ c :: rest).
  destruct (scan_fuel_ge l 20) as (F' & HF); [unfold l; cbn [length app]; rewrite app_length; cbn [length]; lia|].
  assert (HW : (length ws <= F')%nat).
  { unfold scan_fuel, l in HF. cbn [length app] in HF. rewrite app_length in HF. cbn [length] in HF. lia. }
  assert (R : exists s2 k0 r0, reach (20 + F') 2 (init_sc {| si_chars := l; si_look := 0 |}) s2
                /\ chars_of s2 = 46 :: 46 :: 46 :: b :: ws ++ c :: rest /\ sc_tokens s2 = [] /\ sc_stream_end s2 = false
                /\ sc_token_available s2 = false /\ sc_stream_start s2 = true
                /\ m_col (sc_mark s2) = 0 /\ sorted_from (sc_indent s2) (sc_indents s2) = true
                /\ sc_sks s2 = k0 :: r0 /\ (forall k, In k (sc_sks s2) -> sk_required k = false)).
  { unfold l. destruct Hb as [-> | ->]; cbn [app]; do 3 eexists; (split;
    [ reach_step; reach_step; apply reach_0
    | cbn; repeat split; intros k [<-|[]]; reflexivity ]). }
  destruct R as (s2 & k0 & r0 & R & HC & HT & HE & HA & HSS & HCol & HS & HK & HR).
  rewrite <- HF in R.
  apply (reachable_fetch_errs_rejected l 2 s2 R); try assumption; [lia|].
  rewrite (content_after_document_end_rejected (scan_fuel l) s2 b ws c rest k0 r0 HSS HC Hb HB HCc HCol HS HK HR).
  - apply errs_Err.
  - rewrite HF. lia.
Qed.

(* (9) a flow collection closed by the bracket of the other kind (/repo 88700d3) *)
Definition is_mapping_level (st : ims) : bool := match st with ImMapping => true | _ => false end.

(* the check itself: with at least one flow level open, the closer must be of the kind of the innermost level *)
Theorem check_flow_closer_spec (s : sc strin) seq top rest :
  sc_ifms s = top :: rest ->
  check_flow_closer seq s
  = if Bool.eqb (is_mapping_level top) (negb seq) then Ok (tt, s)
    else Err (if is_mapping_level top then 47 else 48) (sc_mark s).
Proof.
  intros Hi. unfold check_flow_closer, bind, get. rewrite Hi. unfold is_mapping_level.
  destruct top, seq; reflexivity.
Qed.

(* ANY scanner state with a flow level open: ']' where the innermost open flow collection is a mapping is error site 47
   ("while parsing a flow mapping, did not find expected ',' or '}'"), '}' where it is a sequence (whatever the state of its
   implicit single-pair mapping: Possible / Inside / InsideExplicitKey) is error site 48 ("while parsing a flow sequence,
   expected ',' or ']'"), both at the closer, before anything else happens *)
Theorem mismatched_flow_closer_rejected F (s : sc strin) (seq : bool) top rest :
  sc_ifms s = top :: rest -> is_mapping_level top = seq ->
  fetch_flow_collection_end str_ops F seq s = Err (if seq then 47 else 48) (sc_mark s).
Proof.
  intros Hi Hm. unfold fetch_flow_collection_end. apply bind_Err.
  rewrite (check_flow_closer_spec s seq top rest Hi). rewrite Hm.
  destruct seq; reflexivity.
Qed.

(* the same from [fetch_next_token]: ANY started state in flow context that stands on the closer, not left of the block
   indentation (that is site 102), with a well-formed indentation stack *)
Theorem mismatched_flow_closer_fetch_rejected F (s : sc strin) (seq : bool) top rest :
  sc_stream_start s = true -> (0 < F)%nat ->
  nth 0 (chars_of s) 0 = (if seq then 93 else 125) ->
  sc_ifms s = top :: rest -> is_mapping_level top = seq ->
  sc_flow_level s <> 0 ->
  sorted_from (sc_indent s) (sc_indents s) = true ->
  (sc_indent s <= Z.of_N (m_col (sc_mark s)))%Z ->
  fetch_next_token str_ops F s = Err (if seq then 47 else 48) (sc_mark s).
Proof.
  intros HSS HF HC Hi Hm HFL HS HCol.
  assert (HN : not_skipped (nth 0 (chars_of s) 0)) by (rewrite HC; destruct seq; repeat split; discriminate).
  assert (HM : no_marker_start s (nth 0 (chars_of s) 0)).
  { rewrite HC. split; [destruct seq; discriminate|]. right. destruct seq; repeat split; discriminate. }
  destruct (fetch_next_token_dispatch F s HSS HF HN HM HS (or_introl HFL))
    as (s4 & E & C4 & _ & M4 & _ & I4 & _ & _ & B4).
  destruct (B4 HFL) as (B1 & _ & _).
  rewrite E, dispatch_run by (rewrite M4, B1; exact HCol). rewrite C4, HC.
  replace (Dispatch.dispatch _ _ _ _) with (Dispatch.DFlowEnd seq) by (destruct seq; reflexivity).
  rewrite <- M4. apply (mismatched_flow_closer_rejected F s4 seq top rest); [rewrite I4; exact Hi | exact Hm].
Qed.

(* (10) block context: ':' separated from the value by tabs only (the implementation's rule, site 97)  *)
Lemma no_space_among_tabs ts : Forall (fun x => x = 9) ts -> existsb (N.eqb 32) ts = false.
Proof. induction 1 as [|x r -> _ IH]; [reflexivity | exact IH]. Qed.

(* ANY state in block context at a ':' that is followed by one or more tabs (and no space) and then by '-' or a word
   character: site 97 ("':' must be followed by a valid YAML whitespace") at that character.  Still so after /repo b87c12b,
   which removed the test in FLOW context only. *)
Theorem tab_after_colon_in_block_rejected F (s : sc strin) k r ts c rest :
  sc_sks s = k :: r -> sc_flow_level s = 0 ->
  chars_of s = 58 :: 9 :: ts ++ c :: rest -> Forall (fun x => x = 9) ts ->
  (c = 45 \/ is_alpha c = true) -> c <> 32 -> c <> 9 -> c <> 35 ->
  (S (length ts) < F)%nat ->
  fetch_value str_ops F s = Err 97 (adv (N.of_nat (S (length ts))) (adv 1 (sc_mark s))).
Proof.
  intros Hk HFL HC HT Hc C32 C9 C35 HF. unfold fetch_value.
  unfold bind at 1. unfold get at 1. rewrite Hk. unfold bind at 1. unfold ret at 1. cbv zeta.
  rewrite HFL. change (0 =? 0) with true. cbv iota.
  assert (PRE : forall s0 : sc strin, chars_of s0 = chars_of s -> sc_mark s0 = sc_mark s ->
            forall (K : @M strin unit),
            (skip_non_blank str_ops ;;; c <- look_ch str_ops ;;
             (if c =? 9 then
                tw <- skip_ws_to_eol str_ops F SkipYes ;;
                if negb (snd tw) then
                  c <- peek str_ops ;;
                  if (c =? 45) || is_alpha c then m <- mark ;; fail 97 m else ret tt
                else ret tt
              else ret tt) ;;; K) s0 = Err 97 (adv (N.of_nat (S (length ts))) (adv 1 (sc_mark s)))).
  { intros s0 H0 M0 K.
    unfold bind at 1. unfold skip_non_blank at 1, bind at 1, in_skip at 1, modify at 1.
    unfold bind at 1, adv_mark at 1, modify at 1. unfold modify at 1.
    unfold bind at 1. unfold look_ch at 1, bind at 1, look at 1. cbn [lookahead str_ops].
    unfold peek at 1, peekn at 1. cbn [peek_nth str_ops sc_in set_lws set_flags set_mark set_in upd si_chars skip1].
    rewrite H0, HC. cbn [tl nth]. change (9 =? 9) with true. cbv iota.
    apply bind_Err.
    match goal with |- bind (skip_ws_to_eol str_ops F SkipYes) _ ?st = _ => set (s1 := st) end.
    assert (HC1 : chars_of s1 = (9 :: ts) ++ c :: rest) by reflexivity.
    assert (HB1 : blank_run SkipYes (9 :: ts)).
    { constructor; [right; split; reflexivity|]. eapply Forall_impl; [|exact HT]. intros x ->. right. split; reflexivity. }
    assert (HS1 : stops_ws SkipYes c) by (repeat split; [exact C32 | intros E; contradiction | exact C35]).
    destruct (skip_ws_to_eol_run (9 :: ts) F SkipYes s1 c rest HC1 HB1 HS1 ltac:(cbn [length]; nlia)) as (lk & E).
    rewrite (bind_Ok _ _ _ _ _ E). cbn [snd existsb]. rewrite (no_space_among_tabs ts HT).
    change (32 =? 9) with false. cbn [orb negb].
    unfold bind at 1, peek at 1, peekn at 1. cbn [peek_nth str_ops sc_in set_mark with_chars set_in upd si_chars nth].
    assert (EA : (c =? 45) || is_alpha c = true).
    { destruct Hc as [->|Hc]; [reflexivity | rewrite Hc; apply orb_true_r]. }
    unfold chr in *. rewrite EA. unfold bind, mark, gets, fail.
    cbn [sc_mark set_mark with_chars set_in upd s1 set_lws set_flags]. rewrite M0. reflexivity. }
  destruct (match sc_ifms s with ImPossible :: _ => true | _ => false end).
  - unfold bind at 1, modify at 1. apply (PRE (set_ifms (ImInside :: tl (sc_ifms s)) s) eq_refl eq_refl).
  - unfold bind at 1, ret at 1. apply (PRE s eq_refl eq_refl).
Qed.

(* (11) text level: a fixed first part that leads the scanner into an error, then ANY continuation *)
(* if, for every continuation and every surplus of fuel, the token iterator run on [pre ++ rest] delivers [n] tokens and
   then fails, every text that starts with [pre] is rejected *)
Theorem text_prefix_rejected pre n e m :
  (n < 20)%nat ->
  (forall rest F', exists s, reach (2 * length pre + 10 + F') n (init_sc {| si_chars := pre ++ rest; si_look := 0 |}) s
                             /\ next_token str_ops (2 * length pre + 10 + F') s = Err e m) ->
  forall rest, snd (run_str (pre ++ rest)) <> PDone.
Proof.
  intros Hn H rest.
  assert (HF : scan_fuel (pre ++ rest) = (2 * length pre + 10 + 2 * length rest)%nat).
  { unfold scan_fuel. rewrite app_length. lia. }
  destruct (H rest (2 * length rest)%nat) as (s & R & E). rewrite <- HF in R, E.
  apply (reachable_scan_error_rejected (pre ++ rest) n s e m R); [lia | exact E].
Qed.

Tactic Notation "prefix_rejected" integer(n) :=
  intros rest F'; cbn [length Nat.mul Nat.add app]; eexists; split; [ do n reach_step; apply reach_0 | eval_exact ].

(* a flow collection closed by the bracket of the other kind, in each state of implicit_flow_mapping_states: directly behind
   the opener, behind an entry, inside an implicit pair, inside an explicit "? key" pair, nested, as value of a block mapping
   and as entry of a block sequence -- whatever follows the wrong closer *)
Definition wrong_closer_prefixes : list (list N * N * marker) :=
  [ ([91;125],                       48, {| m_index := 1; m_line := 1; m_col := 1 |});     (* [}        *)
    ([123;93],                       47, {| m_index := 1; m_line := 1; m_col := 1 |});     (* {]        *)
    ([91;32;97;32;125],              48, {| m_index := 4; m_line := 1; m_col := 4 |});     (* [ a }     *)
    ([123;32;97;32;93],              47, {| m_index := 4; m_line := 1; m_col := 4 |});     (* { a ]     *)
    ([91;32;97;58;32;98;32;125],     48, {| m_index := 7; m_line := 1; m_col := 7 |});     (* [ a: b }  *)
    ([91;32;63;32;97;32;125],        48, {| m_index := 6; m_line := 1; m_col := 6 |});     (* [ ? a }   *)
    ([91;32;58;32;125],              48, {| m_index := 4; m_line := 1; m_col := 4 |});     (* [ : }     *)
    ([123;32;97;58;32;98;32;93],     47, {| m_index := 7; m_line := 1; m_col := 7 |});     (* { a: b ]  *)
    ([91;32;91;32;97;32;125],        48, {| m_index := 6; m_line := 1; m_col := 6 |});     (* [ [ a }   *)
    ([91;32;123;32;97;32;93],        47, {| m_index := 6; m_line := 1; m_col := 6 |});     (* [ { a ]   *)
    ([91;97;44;32;98;125],           48, {| m_index := 5; m_line := 1; m_col := 5 |});     (* [a, b}    *)
    ([123;97;58;32;49;93],           47, {| m_index := 5; m_line := 1; m_col := 5 |}) ].   (* {a: 1]    *)

Lemma wrong_closer_prefix_scan_error :
  Forall (fun p => forall rest F', exists s,
            reach (2 * length (fst (fst p)) + 10 + F') 1 (init_sc {| si_chars := fst (fst p) ++ rest; si_look := 0 |}) s
            /\ next_token str_ops (2 * length (fst (fst p)) + 10 + F') s = Err (snd (fst p)) (snd p)) wrong_closer_prefixes.
Proof. repeat constructor; cbn [fst snd]; prefix_rejected 1. Qed.

Theorem wrong_closer_text_rejected :
  forall pre e m rest, In (pre, e, m) wrong_closer_prefixes -> snd (run_str (pre ++ rest)) <> PDone.
Proof.
  intros pre e m rest Hin.
  pose proof (proj1 (Forall_forall _ _) wrong_closer_prefix_scan_error _ Hin) as H. cbn [fst snd] in H.
  apply (text_prefix_rejected pre 1 e m); [lia | exact H].
Qed.

(* the same behind a block mapping key and behind a block sequence entry (the error arises in a later call of the iterator) *)
Theorem wrong_closer_in_block_value_rejected tail :
  snd (run_str ([107;58;32;91;32;97;32;125] ++ tail)) <> PDone            (* k: [ a }  *)
  /\ snd (run_str ([45;32;123;32;97;32;93] ++ tail)) <> PDone.             (* - { a ]   *)
Proof.
  split.
  - apply (text_prefix_rejected [107;58;32;91;32;97;32;125] 6 48 {| m_index := 7; m_line := 1; m_col := 7 |}); [lia|].
    prefix_rejected 6.
  - apply (text_prefix_rejected [45;32;123;32;97;32;93] 3 47 {| m_index := 6; m_line := 1; m_col := 6 |}); [lia|].
    prefix_rejected 3.
Qed.

(* the same in one evaluation of the whole token iterator: if, for every continuation and every surplus of fuel, the scan
   of [pre ++ rest] ends in the error, every text that starts with [pre] is rejected *)
Theorem text_prefix_scan_error_rejected pre e m :
  (forall rest F' G', snd (scan_all str_ops (2 * length pre + 10 + F') (4 * (2 * length pre + 10) + 20 + G')
                             (init_sc {| si_chars := pre ++ rest; si_look := 0 |}) []) = SError e m) ->
  forall rest, snd (run_str (pre ++ rest)) <> PDone.
Proof.
  intros H rest. apply scan_error_rejected. left. exists e, m. unfold scan_of.
  assert (HF : scan_fuel (pre ++ rest) = (2 * length pre + 10 + 2 * length rest)%nat).
  { unfold scan_fuel. rewrite app_length. lia. }
  rewrite HF.
  replace (4 * (2 * length pre + 10 + 2 * length rest) + 20)%nat
    with (4 * (2 * length pre + 10) + 20 + 8 * length rest)%nat by lia.
  apply H.
Qed.

(* /repo 99c201b at text level: 256 nested block sequences "- - - ... " or explicit keys "? ? ? ... " on one line, whatever
   follows: "recursion limit exceeded" (site 46) where the 256th collection would start *)
Definition dashes (n : nat) : list N := concat (repeat [45; 32] n).
Definition question_marks (n : nat) : list N := concat (repeat [63; 32] n).

Theorem deep_block_nesting_text_rejected rest :
  snd (run_str (dashes 256 ++ rest)) <> PDone /\ snd (run_str (question_marks 256 ++ rest)) <> PDone.
Proof.
  split.
  - apply (text_prefix_scan_error_rejected (dashes 256) 46 {| m_index := 511; m_line := 1; m_col := 511 |}).
    intros rest0 F' G'. vm_compute. reflexivity.
  - apply (text_prefix_scan_error_rejected (question_marks 256) 46 {| m_index := 510; m_line := 1; m_col := 510 |}).
    intros rest0 F' G'. vm_compute. reflexivity.
Qed.

(* 255 levels are accepted: the limit does not reject too much *)
Lemma block_nesting_255_accepted : snd (run_str (dashes 255 ++ [97; 10])) = PDone.
Proof. vm_compute. reflexivity. Qed.

(* (12) composition, one level down: a failing fetch in ANY round of the iterator's refill loop *)
(* [fetch_more_tokens] keeps fetching while the queue is empty or a possible key candidate waits at its head.  [need_more] is
   its test (it runs stale_simple_keys), [rounds F n s s'] = n successful rounds lead from s to s' *)
Definition need_more : @M strin bool :=
  s <- get ;;
  match sc_tokens s with
  | [] => ret true
  | _ => stale_simple_keys ;;;
         s <- get ;;
         ret (existsb (fun k => sk_possible k && (sk_token_number k =? sc_tokens_parsed s)) (sc_sks s))
  end.

Lemma fetch_more_tokens_unfold F f :
  fetch_more_tokens str_ops F (S f)
  = (need <- need_more ;; if need then fetch_next_token str_ops F ;;; fetch_more_tokens str_ops F f else modify (set_ta true)).
Proof. reflexivity. Qed.

Inductive rounds (F : nat) : nat -> sc strin -> sc strin -> Prop :=
| rounds_0 s : rounds F 0 s s
| rounds_S n s s1 s2 s3 :
    need_more s = Ok (true, s1) -> fetch_next_token str_ops F s1 = Ok (tt, s2) -> rounds F n s2 s3 -> rounds F (S n) s s3.

Lemma fetch_more_tokens_rounds F n s s' : rounds F n s s' ->
  forall f, fetch_more_tokens str_ops F (n + f) s = fetch_more_tokens str_ops F f s'.
Proof.
  induction 1 as [s|n s s1 s2 s3 HN HFe HR IH]; intros f; [reflexivity|].
  cbn [Nat.add]. rewrite fetch_more_tokens_unfold.
  rewrite (bind_Ok _ _ _ _ _ HN). rewrite (bind_Ok _ _ _ _ _ HFe). apply IH.
Qed.

(* ANY state of the iterator (between two tokens): if after [n] rounds of refilling another round is needed and its fetch
   fails, the call of the iterator fails with that error *)
Theorem round_fetch_error_is_scan_error F n (s s' s1 : sc strin) e m :
  sc_stream_end s = false -> sc_token_available s = false ->
  rounds F n s s' -> need_more s' = Ok (true, s1) -> fetch_next_token str_ops F s1 = Err e m -> (n < F)%nat ->
  next_token str_ops F s = Err e m.
Proof.
  intros HE HA HR HN HFe Hn. unfold next_token.
  unfold bind at 1, get at 1. rewrite HE, HA. apply bind_Err.
  replace F with (n + S (F - S n))%nat at 2 by lia.
  rewrite (fetch_more_tokens_rounds F n s s' HR). rewrite fetch_more_tokens_unfold.
  rewrite (bind_Ok _ _ _ _ _ HN). apply bind_Err. exact HFe.
Qed.

(* hence for texts: every state-level theorem about [fetch_next_token] rejects the whole text in which its situation
   arises -- between two tokens or in the middle of a refill *)
Corollary reachable_round_error_rejected l n k (s s' s1 : sc strin) e m :
  reach (scan_fuel l) n (init_sc {| si_chars := l; si_look := 0 |}) s ->
  (n < 4 * scan_fuel l + 20)%nat ->
  sc_stream_end s = false -> sc_token_available s = false ->
  rounds (scan_fuel l) k s s' -> (k < scan_fuel l)%nat ->
  need_more s' = Ok (true, s1) -> fetch_next_token str_ops (scan_fuel l) s1 = Err e m ->
  snd (run_str l) <> PDone.
Proof.
  intros HR Hn HE HA HRo Hk HN HFe. apply (reachable_scan_error_rejected l n s e m HR Hn).
  exact (round_fetch_error_is_scan_error _ k s s' s1 e m HE HA HRo HN HFe Hk).
Qed.
