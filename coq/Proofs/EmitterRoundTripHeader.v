From Coq Require Import List NArith ZArith Bool Arith Lia.
Import ListNotations.
Require Import Parser SBase SPrim SDir SScalar SFetch Pipe Drivers TokenGrammar FlowText BlockText ScanFlowProofs ScanBlockProofs EmitterRoundTripDefs ScanSimpl.
Open Scope N_scope.
Open Scope mon_scope.

Lemma doc_start_step F x cs : (4 <= F)%nat ->
  exists lk,
  next_token str_ops F (mkb (45 :: 45 :: 45 :: 10 :: x :: cs) 1 (mkm 0 1 0) [] 0 true dummy_key (-1)%Z [] 1 false true)
  = Ok (Some (spn (mkm 0 1 0) (mkm 3 1 3), TDocumentStart),
        mkb (10 :: x :: cs) lk (mkm 3 1 3) [] 0 false dummy_key (-1)%Z [] 2 false false).
Proof.
  intros HF. destruct F as [|[|[|[|F]]]]; try lia. eexists. reflexivity.
Qed.

Lemma gap_fetch F x cs lk k0 : (4 <= F)%nat -> first_ok x -> sk_possible k0 = false ->
  fetch_next_token str_ops F (mkb (10 :: x :: cs) lk (mkm 3 1 3) [] 0 false k0 (-1)%Z [] 2 false false)
  = fetch_next_token str_ops F
      (mkb (x :: cs) (Nat.max (Nat.max lk 1) 2) (mkm (3 + 1 + N.of_nat 0) (1 + 1) (N.of_nat 0)) [] 0 true k0 (-1)%Z [] 2 false true).
Proof.
  intros HF Hx Hk.
  rewrite (fnt_b F (10 :: x :: cs) lk (mkm 3 1 3) [] 0 false k0 (-1)%Z [] 2 false false
             (x :: cs) (Nat.max (Nat.max lk 1) 2) (mkm (3 + 1 + N.of_nat 0) (1 + 1) (N.of_nat 0)) true true 0 (-1)%Z []).
  2:{ exact (skip_gap 0 F cs (Nat.max lk 1) 3 1 3 [] 0 false k0 (-1)%Z [] 2 false false x ltac:(cbn; lia) Hx). }
  2:{ rewrite stale_k_not_possible by exact Hk. reflexivity. }
  2:{ apply unroll_keep. cbn [m_col mkm]. lia. }
  rewrite (fnt_b F (x :: cs) (Nat.max (Nat.max lk 1) 2) (mkm (3 + 1 + N.of_nat 0) (1 + 1) (N.of_nat 0)) [] 0 true k0 (-1)%Z [] 2 false true
             (x :: cs) (Nat.max (Nat.max (Nat.max (Nat.max lk 1) 2) 1) 1) (mkm (3 + 1 + N.of_nat 0) (1 + 1) (N.of_nat 0)) true true 0 (-1)%Z []).
  2:{ exact (skip_none F cs _ _ [] 0 true k0 (-1)%Z [] 2 false true x ltac:(lia) Hx). }
  2:{ rewrite stale_k_not_possible by exact Hk. reflexivity. }
  2:{ apply unroll_keep. cbn [m_col mkm]. lia. }
  f_equal. unfold mkb. do 2 f_equal. lia.
Qed.

Lemma gap_next F x cs lk k0 : (4 <= F)%nat -> first_ok x -> sk_possible k0 = false ->
  next_token str_ops F (mkb (10 :: x :: cs) lk (mkm 3 1 3) [] 0 false k0 (-1)%Z [] 2 false false)
  = next_token str_ops F
      (mkb (x :: cs) (Nat.max (Nat.max lk 1) 2) (mkm (3 + 1 + N.of_nat 0) (1 + 1) (N.of_nat 0)) [] 0 true k0 (-1)%Z [] 2 false true).
Proof.
  intros HF Hx Hk. pose proof (gap_fetch F x cs lk k0 HF Hx Hk) as E.
  set (A := mkb (10 :: x :: cs) lk (mkm 3 1 3) [] 0 false k0 (-1)%Z [] 2 false false) in *.
  set (B := mkb (x :: cs) (Nat.max (Nat.max lk 1) 2) (mkm (3 + 1 + N.of_nat 0) (1 + 1) (N.of_nat 0)) [] 0 true k0 (-1)%Z [] 2 false true) in *.
  rewrite (nt_ntb F F A eq_refl (eq_refl : sc_stream_end A = false)), (nt_ntb F F B eq_refl (eq_refl : sc_stream_end B = false)).
  destruct F as [|b]; [lia|].
  unfold ntb. cbn [bind get]. change (sc_token_available A) with false. change (sc_token_available B) with false. cbv iota.
  rewrite !fmt_S. cbn [bind].
  rewrite (need_canon A eq_refl), (need_canon B eq_refl). cbv iota beta.
  cbn [bind]. rewrite E. reflexivity.
Qed.

Lemma gap_scan F x cs lk k0 : (4 <= F)%nat -> first_ok x -> sk_possible k0 = false -> forall fuel acc,
  scan_all str_ops F fuel (mkb (10 :: x :: cs) lk (mkm 3 1 3) [] 0 false k0 (-1)%Z [] 2 false false) acc
  = scan_all str_ops F fuel
      (mkb (x :: cs) (Nat.max (Nat.max lk 1) 2) (mkm (3 + 1 + N.of_nat 0) (1 + 1) (N.of_nat 0)) [] 0 true k0 (-1)%Z [] 2 false true) acc.
Proof.
  intros HF Hx Hk fuel acc. destruct fuel as [|fuel]; [reflexivity|].
  rewrite !scan_all_S, (gap_next F x cs lk k0 HF Hx Hk). reflexivity.
Qed.

Theorem header_scan : forall F x cs, (4 <= F)%nat -> first_ok x -> (x =? 0) = false ->
  exists t0 t1 s1,
    snd t0 = TStreamStart /\ snd t1 = TDocumentStart /\ at_tok s1 (x :: cs) 0 [] /\
    forall fuel acc, scan_all str_ops F (2 + fuel) (init_sc {| si_chars := doc_header ++ x :: cs; si_look := 0 |}) acc
                     = scan_all str_ops F fuel s1 (t1 :: t0 :: acc).
Proof.
  intros F x cs HF Hx _. destruct (doc_start_step F x cs HF) as (lk & E2).
  exists (span_empty (mk1 0), TStreamStart), (spn (mkm 0 1 0) (mkm 3 1 3), TDocumentStart),
    (mkb (x :: cs) (Nat.max (Nat.max lk 1) 2) (mkm (3 + 1 + N.of_nat 0) (1 + 1) (N.of_nat 0)) [] 0 true dummy_key (-1)%Z [] 2 false true).
  split; [reflexivity|]. split; [reflexivity|]. split.
  - eapply at_tok_intro; [reflexivity|reflexivity|reflexivity|left; reflexivity].
  - intros fuel acc. change (2 + fuel)%nat with (S (S fuel)).
    rewrite scan_all_S, (first_token F (doc_header ++ x :: cs)) by lia. cbv beta iota.
    change (mkst (doc_header ++ x :: cs) 1 (mk1 0) [] 0 true [dummy_key] 0 1 false true [])
      with (mkb (45 :: 45 :: 45 :: 10 :: x :: cs) 1 (mkm 0 1 0) [] 0 true dummy_key (-1)%Z [] 1 false true).
    rewrite scan_all_S, E2. cbv beta iota.
    apply gap_scan; [exact HF|exact Hx|reflexivity].
Qed.

Print Assumptions header_scan.
