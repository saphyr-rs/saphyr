(* Theory of LinkedHashMap::insert as a list operation (existing equal key: value replaced, entry moved to the
   back, old key object kept), over an arbitrary key/value type with a boolean EQUIVALENCE.
   F l  = inserting the entries of l one by one into the empty map (what the loader and `collect()` do);
   G l  = "drop every entry whose key occurs again later" — the same map up to the choice of key object.
   Main results:  F l ~ G l;  F is a congruence;  lookups see the LAST value;  keys of F l are pairwise distinct;
   F l = l on lists without duplicate keys;  and the re-collection lemma used for deferred resolution:
       F (map f (insert k v l)) ~ insert (f k) (f v) (F (map f l))      for every equality-preserving f. *)
From Coq Require Import List Bool.
Import ListNotations.
Require Import LinkedMap ListKit.

Section Insert.
  Variable T : Type.
  Variable eqb : T -> T -> bool.
  Hypothesis eqb_refl : forall a, eqb a a = true.
  Hypothesis eqb_sym : forall a b, eqb a b = eqb b a.
  Hypothesis eqb_trans : forall a b c, eqb a b = true -> eqb b c = true -> eqb a c = true.

  Local Notation entry := (T * T)%type.
  Local Notation g_remove := (lm_remove eqb).
  Local Notation g_insert := (lm_insert eqb).
  Local Notation ins := (lm_ins eqb).
  Local Notation F := (lm_collect eqb).
  Local Notation mem := (lm_mem eqb).
  Local Notation G := (lm_dedup eqb).
  Local Notation nodupb := (lm_nodupb eqb).
  Local Notation assoc := (lm_get eqb).
  (* folding onto an accumulator, as the loader does while a mapping is open *)
  Definition Facc (acc l : list entry) : list entry := fold_left (fun acc p => ins p acc) l acc.

  Definition peq (p q : entry) : Prop := eqb (fst p) (fst q) = true /\ eqb (snd p) (snd q) = true.
  Definition leq (l l' : list entry) : Prop := Forall2 peq l l'.

  (* the equivalence *)
  Lemma eqb_cong_l a b c : eqb a b = true -> eqb a c = eqb b c.
  Proof.
    intros H. destruct (eqb b c) eqn:E.
    - apply (eqb_trans a b c); assumption.
    - destruct (eqb a c) eqn:E2; [|reflexivity].
      rewrite <- E. symmetry. apply (eqb_trans b a c); [rewrite eqb_sym; exact H|exact E2].
  Qed.
  Lemma eqb_cong_r a b c : eqb a b = true -> eqb c a = eqb c b.
  Proof. intros H. rewrite (eqb_sym c a), (eqb_sym c b). apply eqb_cong_l; exact H. Qed.

  Lemma peq_refl p : peq p p.
  Proof. split; apply eqb_refl. Qed.
  Lemma leq_refl l : leq l l.
  Proof. induction l; constructor; [apply peq_refl|assumption]. Qed.
  Lemma leq_sym l l' : leq l l' -> leq l' l.
  Proof. induction 1 as [|p q l l' [A B] _ IH]; constructor; [split; rewrite eqb_sym; assumption|exact IH]. Qed.
  Lemma leq_trans a b c : leq a b -> leq b c -> leq a c.
  Proof.
    intros H; revert c; induction H as [|p q l l' [A B] _ IH]; intros c Hc; inversion Hc as [|q' r' l2 l3 [C D] Hr]; subst.
    - constructor.
    - constructor; [split; eapply eqb_trans; eassumption|apply IH; exact Hr].
  Qed.
  Lemma leq_app a a' b b' : leq a a' -> leq b b' -> leq (a ++ b) (a' ++ b').
  Proof. intros H1 H2. apply Forall2_app; assumption. Qed.
  Lemma pairs_eqb_leq l l' : pairs_eqb eqb l l' = true <-> leq l l'.
  Proof. apply pairs_eqb_Forall2. Qed.

  (* insert, as a recursion on the list *)
  Lemma ins_nil k v : g_insert k v [] = [(k, v)].
  Proof. reflexivity. Qed.
  Lemma ins_cons k v p m :
    g_insert k v (p :: m) = if eqb k (fst p) then m ++ [(fst p, v)] else p :: g_insert k v m.
  Proof.
    unfold lm_insert. destruct p as [k' v']. cbn [lm_remove fst].
    destruct (eqb k k'); [reflexivity|].
    destruct (g_remove k m) as [[k0|] r]; reflexivity.
  Qed.

  Lemma mem_app k a b : mem k (a ++ b) = mem k a || mem k b.
  Proof. apply existsb_app. Qed.
  Lemma mem_congr k k' l l' : eqb k k' = true -> leq l l' -> mem k l = mem k' l'.
  Proof.
    intros Hk H. induction H as [|p q l l' [A B] _ IH]; [reflexivity|].
    cbn [lm_mem existsb]. fold (mem k l) (mem k' l'). rewrite IH.
    rewrite (eqb_cong_l k k' (fst p) Hk), (eqb_cong_r _ _ k' A). reflexivity.
  Qed.

  Lemma ins_notin k v m : mem k m = false -> g_insert k v m = m ++ [(k, v)].
  Proof.
    induction m as [|p m IH]; intros H; [reflexivity|].
    cbn [lm_mem existsb] in H. apply orb_false_iff in H. destruct H as [H1 H2].
    rewrite ins_cons, H1. cbn [app]. f_equal. apply IH. exact H2.
  Qed.

  Lemma mem_ins x k v m : mem x (g_insert k v m) = mem x m || eqb x k.
  Proof.
    induction m as [|p m IH]; [cbn; rewrite orb_false_r; reflexivity|].
    rewrite ins_cons. destruct (eqb k (fst p)) eqn:E.
    - rewrite mem_app. cbn [lm_mem existsb fst]. fold (mem x m).
      rewrite (eqb_cong_r k (fst p) x E). destruct (eqb x (fst p)), (mem x m); reflexivity.
    - cbn [lm_mem existsb]. fold (mem x (g_insert k v m)) (mem x m). rewrite IH.
      destruct (eqb x (fst p)), (mem x m); reflexivity.
  Qed.

  Lemma ins_congr k k' v v' l l' :
    eqb k k' = true -> eqb v v' = true -> leq l l' -> leq (g_insert k v l) (g_insert k' v' l').
  Proof.
    intros Hk Hv H. induction H as [|p q l l' [A B] Hl IH].
    - constructor; [split; assumption|constructor].
    - rewrite !ins_cons.
      assert (E : eqb k (fst p) = eqb k' (fst q)).
      { rewrite (eqb_cong_l k k' (fst p) Hk). apply eqb_cong_r. exact A. }
      rewrite E. destruct (eqb k' (fst q)).
      + apply leq_app; [exact Hl|]. constructor; [split; assumption|constructor].
      + constructor; [split; assumption|exact IH].
  Qed.

  (* G *)
  Lemma G_congr l l' : leq l l' -> leq (G l) (G l').
  Proof.
    induction 1 as [|p q l l' [A B] Hl IH]; [constructor|].
    cbn [lm_dedup]. rewrite (mem_congr (fst p) (fst q) l l' A Hl).
    destruct (mem (fst q) l'); [exact IH|]. constructor; [split; assumption|exact IH].
  Qed.

  Lemma G_snoc_notin k v r : mem k r = false -> G (r ++ [(k, v)]) = G r ++ [(k, v)].
  Proof.
    induction r as [|p r IH]; intros H; [reflexivity|].
    cbn [lm_mem existsb] in H. apply orb_false_iff in H. destruct H as [H1 H2].
    cbn [app lm_dedup]. rewrite mem_app. cbn [lm_mem existsb fst]. fold (mem (fst p) r).
    rewrite (eqb_sym (fst p) k), H1, ?orb_false_r. rewrite (IH H2).
    destruct (mem (fst p) r); reflexivity.
  Qed.

  Lemma mem_G x l : mem x (G l) = mem x l.
  Proof.
    induction l as [|p r IH]; [reflexivity|].
    cbn [lm_dedup]. destruct (mem (fst p) r) eqn:E.
    - rewrite IH. cbn [lm_mem existsb]. fold (mem x r).
      destruct (eqb x (fst p)) eqn:E2; [|reflexivity].
      cbn [orb]. rewrite <- E. apply mem_congr; [exact E2|apply leq_refl].
    - cbn [lm_mem existsb]. fold (mem x (G r)) (mem x r). rewrite IH. reflexivity.
  Qed.

  Lemma ins_G k v l : leq (g_insert k v (G l)) (G (l ++ [(k, v)])).
  Proof.
    induction l as [|p r IH]; [cbn; constructor; [apply peq_refl|constructor]|].
    cbn [app lm_dedup]. rewrite mem_app. cbn [lm_mem existsb fst]. fold (mem (fst p) r). rewrite orb_false_r.
    destruct (mem (fst p) r) eqn:Em; cbn [orb]; [exact IH|].
    rewrite ins_cons. rewrite (eqb_sym k (fst p)). destruct (eqb (fst p) k) eqn:Ek.
    - assert (Hn : mem k r = false).
      { rewrite <- Em. apply mem_congr; [rewrite eqb_sym; exact Ek|apply leq_refl]. }
      rewrite (G_snoc_notin k v r Hn). apply leq_app; [apply leq_refl|].
      constructor; [split; [exact Ek|apply eqb_refl]|constructor].
    - constructor; [apply peq_refl|exact IH].
  Qed.

  (* F *)
  Lemma F_snoc l p : F (l ++ [p]) = ins p (F l).
  Proof. unfold lm_collect. rewrite fold_left_app. reflexivity. Qed.
  Lemma Facc_F acc l : Facc (F acc) l = F (acc ++ l).
  Proof. unfold Facc, lm_collect. rewrite fold_left_app. reflexivity. Qed.

  Theorem F_G l : leq (F l) (G l).
  Proof.
    induction l as [|p l IH] using rev_ind; [constructor|].
    rewrite F_snoc. unfold lm_ins. destruct p as [k v]. cbn [fst snd].
    eapply leq_trans; [apply ins_congr; [apply eqb_refl|apply eqb_refl|exact IH]|apply ins_G].
  Qed.

  Theorem F_congr l l' : leq l l' -> leq (F l) (F l').
  Proof.
    intros H. eapply leq_trans; [apply F_G|]. eapply leq_trans; [apply G_congr; exact H|].
    apply leq_sym, F_G.
  Qed.

  (* keys of a map are pairwise distinct, and the LAST value of a key wins *)
  Lemma nodupb_snoc k v m : nodupb m = true -> mem k m = false -> nodupb (m ++ [(k, v)]) = true.
  Proof.
    induction m as [|p m IH]; intros Hn Hm; [reflexivity|].
    cbn [lm_nodupb] in Hn. apply andb_true_iff in Hn. destruct Hn as [H1 H2].
    cbn [lm_mem existsb] in Hm. apply orb_false_iff in Hm. destruct Hm as [H3 H4].
    cbn [app lm_nodupb]. rewrite mem_app. cbn [lm_mem existsb fst]. fold (mem (fst p) m).
    rewrite (eqb_sym (fst p) k), H3. apply negb_true_iff in H1. rewrite H1. cbn [orb negb andb].
    apply IH; assumption.
  Qed.

  Lemma nodupb_ins k v m : nodupb m = true -> nodupb (g_insert k v m) = true.
  Proof.
    induction m as [|p m IH]; intros Hn; [reflexivity|].
    cbn [lm_nodupb] in Hn. apply andb_true_iff in Hn. destruct Hn as [H1 H2]. apply negb_true_iff in H1.
    rewrite ins_cons. destruct (eqb k (fst p)) eqn:E.
    - apply nodupb_snoc; assumption.
    - cbn [lm_nodupb]. rewrite mem_ins, H1, (eqb_sym (fst p) k), E. cbn [orb negb andb]. apply IH; exact H2.
  Qed.

  Theorem nodupb_F l : nodupb (F l) = true.
  Proof. induction l as [|p l IH] using rev_ind; [reflexivity|]. rewrite F_snoc. apply nodupb_ins; exact IH. Qed.

  Lemma assoc_notin x m : mem x m = false -> assoc x m = None.
  Proof.
    induction m as [|p m IH]; intros H; [reflexivity|].
    cbn [lm_mem existsb] in H. apply orb_false_iff in H. destruct H as [H1 H2].
    cbn [lm_get]. rewrite H1. apply IH; exact H2.
  Qed.
  Lemma assoc_app x a b : assoc x (a ++ b) = match assoc x a with Some v => Some v | None => assoc x b end.
  Proof. induction a as [|p a IH]; [reflexivity|]. cbn [app lm_get]. destruct (eqb x (fst p)); [reflexivity|exact IH]. Qed.

  Lemma assoc_ins x k v m : nodupb m = true ->
    assoc x (g_insert k v m) = if eqb x k then Some v else assoc x m.
  Proof.
    induction m as [|p m IH]; intros Hn; [cbn; destruct (eqb x k); reflexivity|].
    cbn [lm_nodupb] in Hn. apply andb_true_iff in Hn. destruct Hn as [H1 H2]. apply negb_true_iff in H1.
    rewrite ins_cons. destruct (eqb k (fst p)) eqn:E.
    - rewrite assoc_app. cbn [lm_get fst snd]. rewrite <- (eqb_cong_r k (fst p) x E).
      destruct (eqb x k) eqn:E2.
      + assert (Hx : mem x m = false).
        { rewrite <- H1. apply mem_congr; [|apply leq_refl]. eapply eqb_trans; eassumption. }
        rewrite (assoc_notin x m Hx). reflexivity.
      + destruct (assoc x m); reflexivity.
    - cbn [lm_get]. destruct (eqb x (fst p)) eqn:E3.
      + assert (E4 : eqb x k = false).
        { destruct (eqb x k) eqn:E5; [|reflexivity]. rewrite <- E. symmetry.
          apply (eqb_trans k x (fst p)); [rewrite eqb_sym; exact E5|exact E3]. }
        rewrite E4. reflexivity.
      + apply IH; exact H2.
  Qed.

  (* the value found under a key is the one of its LAST occurrence in the source list *)
  Theorem assoc_F x l : assoc x (F l) = assoc x (rev l).
  Proof.
    induction l as [|p l IH] using rev_ind; [reflexivity|].
    rewrite F_snoc, rev_app_distr. cbn [rev app lm_get]. unfold lm_ins.
    rewrite assoc_ins by apply nodupb_F. destruct (eqb x (fst p)); [reflexivity|exact IH].
  Qed.

  (* nothing is dropped or invented: the keys of the map are the keys of the source *)
  Theorem mem_F x l : mem x (F l) = mem x l.
  Proof.
    induction l as [|p l IH] using rev_ind; [reflexivity|].
    rewrite F_snoc. unfold lm_ins. rewrite mem_ins, IH, mem_app. cbn [lm_mem existsb]. rewrite orb_false_r. reflexivity.
  Qed.

  (* a list without duplicate keys is its own map *)
  Lemma nodupb_app_inv l p : nodupb (l ++ [p]) = true -> nodupb l = true /\ mem (fst p) l = false.
  Proof.
    induction l as [|q l IH]; intros H; [split; reflexivity|].
    cbn [app lm_nodupb] in H. apply andb_true_iff in H. destruct H as [H1 H2]. apply negb_true_iff in H1.
    rewrite mem_app in H1. apply orb_false_iff in H1. destruct H1 as [H3 H4].
    cbn [lm_mem existsb] in H4. rewrite orb_false_r in H4.
    destruct (IH H2) as [H5 H6]. split.
    - cbn [lm_nodupb]. rewrite H3, H5. reflexivity.
    - cbn [lm_mem existsb]. fold (mem (fst p) l). rewrite (eqb_sym (fst p) (fst q)), H4, H6. reflexivity.
  Qed.

  Theorem F_nodup_id l : nodupb l = true -> F l = l.
  Proof.
    induction l as [|p l IH] using rev_ind; intros H; [reflexivity|].
    apply nodupb_app_inv in H. destruct H as [H1 H2].
    rewrite F_snoc, (IH H1). unfold lm_ins. destruct p as [k v]. apply ins_notin. exact H2.
  Qed.

  (* entries of a map come from the source: any predicate on keys and values is preserved *)
  Section AllP.
    Variable P : T -> Prop.
    Definition allP (l : list entry) : Prop := Forall (fun p => P (fst p) /\ P (snd p)) l.
    Lemma allP_ins k v m : allP m -> P k -> P v -> allP (g_insert k v m).
    Proof.
      intros Hm Hk Hv. induction Hm as [|p m [A B] Hm IH]; [constructor; [split; assumption|constructor]|].
      rewrite ins_cons. destruct (eqb k (fst p)).
      - apply Forall_app. split; [exact Hm|]. constructor; [split; assumption|constructor].
      - constructor; [split; assumption|exact IH].
    Qed.
    Lemma allP_F l : allP l -> allP (F l).
    Proof.
      induction l as [|p l IH] using rev_ind; intros H; [constructor|].
      apply Forall_app in H. destruct H as [H1 H2]. inversion H2 as [|? ? [A B] _]; subst.
      rewrite F_snoc. unfold lm_ins. apply allP_ins; [apply IH; exact H1|exact A|exact B].
    Qed.
  End AllP.
  Lemma pall_ins p k v m : pall p m = true -> p k = true -> p v = true -> pall p (g_insert k v m) = true.
  Proof. rewrite !pall_Forall. intros. apply (allP_ins (fun x => p x = true)); assumption. Qed.
  Lemma pall_F p l : pall p l = true -> pall p (F l) = true.
  Proof. rewrite !pall_Forall. apply (allP_F (fun x => p x = true)). Qed.

  (* re-collecting a map through an equality-preserving function *)
  Section Recollect.
    Variable f : T -> T.
    Hypothesis f_congr : forall a b, eqb a b = true -> eqb (f a) (f b) = true.
    Definition fp (p : entry) : entry := (f (fst p), f (snd p)).

    Lemma map_fp_congr l l' : leq l l' -> leq (map fp l) (map fp l').
    Proof. induction 1 as [|p q l l' [A B] _ IH]; constructor; [split; apply f_congr; assumption|exact IH]. Qed.

    Lemma mem_map_ins x k v m : mem x (map fp (g_insert k v m)) = mem x (map fp m) || eqb x (f k).
    Proof.
      induction m as [|p m IH]; [cbn; rewrite orb_false_r; reflexivity|].
      rewrite ins_cons. destruct (eqb k (fst p)) eqn:E.
      - rewrite map_app, mem_app. cbn [map lm_mem existsb fp fst]. fold (mem x (map fp m)).
        rewrite (eqb_cong_r (f k) (f (fst p)) x (f_congr _ _ E)).
        destruct (eqb x (f (fst p))), (mem x (map fp m)); reflexivity.
      - cbn [map lm_mem existsb]. fold (mem x (map fp (g_insert k v m))) (mem x (map fp m)). rewrite IH.
        destruct (eqb x (fst (fp p))), (mem x (map fp m)); reflexivity.
    Qed.

    Lemma G_map_ins k v l : leq (G (map fp (g_insert k v l))) (G (map fp (l ++ [(k, v)]))).
    Proof.
      induction l as [|p m IH]; [apply leq_refl|].
      rewrite ins_cons. destruct (eqb k (fst p)) eqn:E.
      - cbn [app map lm_dedup].
        assert (Hm : mem (fst (fp p)) (map fp (m ++ [(k, v)])) = true).
        { rewrite map_app, mem_app. cbn [map lm_mem existsb fp fst].
          rewrite (eqb_sym (f (fst p)) (f k)), (f_congr _ _ E). rewrite orb_true_r. reflexivity. }
        rewrite Hm. apply G_congr. rewrite !map_app. apply leq_app; [apply leq_refl|].
        constructor; [|constructor]. split; cbn [fp fst snd]; [|apply eqb_refl].
        apply f_congr. rewrite eqb_sym. exact E.
      - cbn [app map lm_dedup]. rewrite mem_map_ins. rewrite map_app in IH. cbn [map] in IH.
        rewrite (map_app fp m [(k, v)]), mem_app. cbn [map lm_mem existsb fp fst]. rewrite orb_false_r.
        destruct (mem (f (fst p)) (map fp m) || eqb (f (fst p)) (f k)); [exact IH|].
        constructor; [apply peq_refl|exact IH].
    Qed.

    (* resolving the keys and values of a map after an insertion = inserting the resolved entry into the
       resolved map, whatever keys resolution identifies *)
    Theorem recollect_insert k v l :
      leq (F (map fp (g_insert k v l))) (g_insert (f k) (f v) (F (map fp l))).
    Proof.
      eapply leq_trans; [apply F_G|].
      eapply leq_trans; [apply G_map_ins|].
      rewrite map_app. cbn [map fp fst snd].
      eapply leq_trans; [apply leq_sym, ins_G|].
      apply ins_congr; [apply eqb_refl|apply eqb_refl|apply leq_sym, F_G].
    Qed.

    (* the statement in its "whole map" form: collecting the resolved entries of a collected map is
       collecting the resolved entries of the source *)
    Theorem recollect_F l : leq (F (map fp (F l))) (F (map fp l)).
    Proof.
      induction l as [|p l IH] using rev_ind; [constructor|].
      rewrite F_snoc, map_app. cbn [map]. rewrite F_snoc. unfold lm_ins at 1. destruct p as [k v]. cbn [fst snd map fp].
      eapply leq_trans; [apply recollect_insert|].
      unfold lm_ins. cbn [fst snd]. apply ins_congr; [apply eqb_refl|apply eqb_refl|exact IH].
    Qed.
  End Recollect.
End Insert.

(* The lemmas above take the three facts that make eqb an equivalence as premises; once the three lemmas of an
   instance are hints in this database, [eauto with eqv] closes them. *)
Create HintDb eqv.

(* a map between two key/value types under which the equality tests agree commutes with the map operations *)
Section MapHom.
  Variables (T U : Type) (eqT : T -> T -> bool) (eqU : U -> U -> bool) (f : T -> U).
  Hypothesis f_eqb : forall a b, eqT a b = eqU (f a) (f b).

  Lemma lm_remove_map k l :
    lm_remove eqU (f k) (pmap f l) = (option_map f (fst (lm_remove eqT k l)), pmap f (snd (lm_remove eqT k l))).
  Proof.
    induction l as [|[k' v'] r IH]; [reflexivity|].
    cbn [pmap lm_remove]. rewrite <- f_eqb. destruct (eqT k k'); [reflexivity|].
    rewrite IH. destruct (lm_remove eqT k r) as [o r']. reflexivity.
  Qed.
  Lemma lm_insert_map k v l : pmap f (lm_insert eqT k v l) = lm_insert eqU (f k) (f v) (pmap f l).
  Proof.
    unfold lm_insert. rewrite lm_remove_map. destruct (lm_remove eqT k l) as [[k0|] r]; cbn [fst snd option_map];
      rewrite pmap_app; reflexivity.
  Qed.
  Lemma lm_collect_map l : pmap f (lm_collect eqT l) = lm_collect eqU (pmap f l).
  Proof.
    induction l as [|[k v] l IH] using rev_ind; [reflexivity|].
    rewrite pmap_app. cbn [pmap]. rewrite !F_snoc. unfold lm_ins. cbn [fst snd]. rewrite lm_insert_map, IH. reflexivity.
  Qed.
End MapHom.
