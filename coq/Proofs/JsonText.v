(* C13 — the two halves composed: scanner model (Proofs/JsonScan*.v: text -> tokens) and parser + loader + resolver models
   (Proofs/JsonProofs.v: tokens -> document).  Every JSON text loads with its JSON meaning, over the whole model pipeline. *)
From Coq Require Import List NArith ZArith Bool Arith Lia.
Import ListNotations.
Require Import Parser SBase SFetch Pipe Resolver CoreSchema Loader PipeL Json JsonInd C02run JsonProofs JsonScanBase JsonWords JsonScanRun JsonScanTop.
Require DocRun.

(* a JSON text denotes a well-formed value (its numbers are RFC 8259 numbers) *)
Lemma elems_each es body : elems_text es body -> forall v, In v es -> exists t, json_text v t.
Proof.
  revert body. induction es as [|x r IH]; intros body H v Hin; [contradiction|].
  inversion H; subst.
  - destruct Hin as [<-|[]]. eauto.
  - destruct Hin as [<-|Hin]; [eauto|]. eapply IH; eauto.
Qed.
Lemma members_each ms body : members_text ms body -> forall kv, In kv ms -> exists t, json_text (snd kv) t.
Proof.
  revert body. induction ms as [|x r IH]; intros body H kv Hin; [contradiction|].
  inversion H; subst.
  - destruct Hin as [<-|[]]. cbn [snd]. eauto.
  - destruct Hin as [<-|Hin]; [cbn [snd]; eauto|]. eapply IH; eauto.
Qed.

Lemma json_text_wf : forall v t, json_text v t -> json_wf v = true.
Proof.
  induction v using jvalue_ind2; intros t0 Ht; try reflexivity.
  - inversion Ht; subst. assumption.
  - cbn [json_wf]. apply forallb_forall. intros x Hx. inversion Ht; subst; [contradiction|].
    rewrite Forall_forall in H. match goal with He : elems_text _ _ |- _ => destruct (elems_each _ _ He x Hx) as (tx & Htx) end.
    exact (H x Hx tx Htx).
  - cbn [json_wf]. apply forallb_forall. intros x Hx. inversion Ht; subst; [contradiction|].
    rewrite Forall_forall in H. match goal with He : members_text _ _ |- _ => destruct (members_each _ _ He x Hx) as (tx & Htx) end.
    exact (H x Hx tx Htx).
Qed.

(* the scanner half in the form the token-level theorem consumes *)
Theorem text_tokens v s : json_doc_text v s -> (json_depth v < 256)%nat ->
  forall F, (2 * length s + 10 <= F)%nat ->
  let '(toks, se) := scan_all str_ops F (4 * F + 20) (init_sc {| si_chars := s; si_look := 0 |}) [] in
  map snd toks = wrap (json_tokens v) /\ se = SEnded /\ (length toks + 2 < 4 * F + 20)%nat.
Proof.
  intros Hd Hdep F HF. destruct (scan_json_doc v s Hd Hdep F HF) as (toks & -> & Hm & Hl). auto.
Qed.

Lemma run_load_scan s :
  run_load s = (let F := (2 * length s + 10)%nat in
                let '(toks, se) := scan_all str_ops F (4 * F + 20) (init_sc {| si_chars := s; si_look := 0 |}) [] in
                load_tokens (4 * F + 20) toks se).
Proof. reflexivity. Qed.

(* C13 over the whole model pipeline *)
Theorem text_load v s : json_doc_text v s -> (json_depth v < 256)%nat -> run_load s = LDocs [yaml_of_json v].
Proof.
  intros Hd Hdep. rewrite run_load_scan. cbv zeta.
  pose proof (text_tokens v s Hd Hdep (2 * length s + 10)%nat (le_n _)) as H.
  destruct (scan_all _ _ _ _ _) as [toks se]. destruct H as (Hm & _ & Hl).
  destruct Hd as (w1 & t & w2 & _ & Ht & _ & _).
  exact (tokens_load v toks se _ (json_text_wf v t Ht) Hm Hl).
Qed.

(* the compact serialiser is a serialiser *)
Lemma hex_low : forallb (fun c => match hex4 48 48 (hexdig (c / 16)) (hexdig (c mod 16)) with Some x => (x =? c)%N | None => false end)
                        (map N.of_nat (seq 0 32)) = true.
Proof. vm_compute. reflexivity. Qed.

Lemma below32 c : (c < 32)%N -> In c (map N.of_nat (seq 0 32)).
Proof.
  intros H. apply in_map_iff. exists (N.to_nat c). split; [apply N2Nat.id|]. apply in_seq. lia.
Qed.

Lemma esc_char_text c s t : scalar_char c = true -> str_text s t -> str_text (c :: s) (esc_char c ++ t).
Proof.
  intros Hc Hst. unfold scalar_char in Hc. apply andb_prop in Hc as [Hmax Hsur]. apply negb_true_iff in Hsur.
  unfold esc_char, Resolver.ch. destruct (N.eqb_spec c 34) as [->|H34].
  - apply (st_esc 34%N 34%N); [cbn; tauto|exact Hst].
  - destruct (N.eqb_spec c 92) as [->|H92].
    + apply (st_esc 92%N 92%N); [cbn; tauto|exact Hst].
    + destruct (c <? 32)%N eqn:E32.
      * apply N.ltb_lt in E32. pose proof hex_low as Hh. rewrite forallb_forall in Hh. specialize (Hh c (below32 c E32)).
        destruct (hex4 48 48 (hexdig (c / 16)) (hexdig (c mod 16))) as [x|] eqn:Ex; [|discriminate]. apply N.eqb_eq in Hh. subst x.
        cbn [app]. apply (st_u 48 48 (hexdig (c / 16)) (hexdig (c mod 16)) c)%N; assumption.
      * cbn [app]. apply st_raw; try assumption.
        -- apply N.ltb_ge in E32. apply N.leb_le. exact E32.
        -- unfold Resolver.ch. apply N.eqb_neq. exact H34.
        -- unfold Resolver.ch. apply N.eqb_neq. exact H92.
Qed.

Lemma json_string_text s : forallb scalar_char s = true -> str_text s (flat_map esc_char s).
Proof.
  induction s as [|c s IH]; intros H; [constructor|]. cbn [forallb] in H. apply andb_prop in H as [Hc Hs].
  cbn [flat_map]. apply esc_char_text; [exact Hc|apply IH; exact Hs].
Qed.

Lemma ws_nil : ws [].
Proof. reflexivity. Qed.

Lemma elems_compact x r :
  Forall (fun v => json_text v (json_compact v)) (x :: r) ->
  elems_text (x :: r) (json_compact x ++ flat_map (fun y => 44%N :: json_compact y) r).
Proof.
  revert x. induction r as [|y r IH]; intros x H; inversion H as [|? ? Hx Hr]; subst.
  - cbn [flat_map]. pose proof (et_one x [] (json_compact x) [] ws_nil Hx ws_nil) as E. cbn [app] in E. exact E.
  - cbn [flat_map]. pose proof (et_cons x [] (json_compact x) [] (y :: r) _ ws_nil Hx ws_nil (IH y Hr)) as E. cbn [app] in E. exact E.
Qed.

Lemma members_compact kv r :
  Forall (fun kv => forallb scalar_char (fst kv) = true /\ json_text (snd kv) (json_compact (snd kv))) (kv :: r) ->
  members_text (kv :: r) ((json_string (fst kv) ++ 58%N :: json_compact (snd kv))
                          ++ flat_map (fun kv => 44%N :: json_string (fst kv) ++ 58%N :: json_compact (snd kv)) r).
Proof.
  revert kv. induction r as [|kv2 r IH]; intros [k v] H; inversion H as [|? ? [Hk Hv] Hr]; subst; cbn [fst snd] in *.
  - cbn [flat_map]. rewrite app_nil_r.
    pose proof (mt_one k v [] (flat_map esc_char k) [] [] (json_compact v) [] ws_nil (json_string_text k Hk) ws_nil ws_nil Hv ws_nil) as E.
    cbn [app] in E. rewrite app_nil_r in E. unfold json_string. cbn [app]. uc. rewrite <- app_assoc. cbn [app]. exact E.
  - cbn [flat_map].
    pose proof (mt_cons k v [] (flat_map esc_char k) [] [] (json_compact v) [] (kv2 :: r) _ ws_nil (json_string_text k Hk) ws_nil ws_nil Hv ws_nil (IH kv2 Hr)) as E.
    cbn [app] in E. unfold json_string at 1. cbn [app]. uc. repeat (rewrite <- app_assoc || (progress cbn [app])). repeat (rewrite <- app_assoc in E || (progress cbn [app] in E)). exact E.
Qed.

Theorem json_compact_text : forall v, json_wf v = true -> json_chars_ok v = true -> json_text v (json_compact v).
Proof.
  induction v using jvalue_ind2; intros Hwf Hok.
  - constructor.
  - constructor.
  - constructor. exact Hwf.
  - cbn [json_compact]. unfold json_string. constructor. apply json_string_text. exact Hok.
  - cbn [json_wf json_chars_ok] in *. destruct l as [|x r].
    + apply (jt_arr0 []). reflexivity.
    + cbn [json_compact]. apply jt_arr. apply elems_compact.
      rewrite Forall_forall in *. rewrite forallb_forall in Hwf, Hok. intros v Hv. apply H; auto.
  - cbn [json_wf json_chars_ok] in *. destruct l as [|kv r].
    + apply (jt_obj0 []). reflexivity.
    + cbn [json_compact]. apply jt_obj. apply members_compact.
      rewrite Forall_forall in *. rewrite forallb_forall in Hwf, Hok. intros kv' Hkv.
      specialize (Hok kv' Hkv). apply andb_prop in Hok as [A B]. split; [exact A|]. apply H; auto.
Qed.

Theorem compact_load v : json_wf v = true -> json_chars_ok v = true -> (json_depth v < 256)%nat ->
  run_load (json_compact v) = LDocs [yaml_of_json v].
Proof.
  intros Hwf Hok Hd. apply text_load; [|exact Hd].
  exists [], (json_compact v), []. repeat split; try reflexivity; [apply json_compact_text; assumption|rewrite app_nil_r; reflexivity].
Qed.

(* corollaries *)
(* member names pairwise distinct at every level: mappings in source order *)
Theorem text_load_ordered v s : json_doc_text v s -> (json_depth v < 256)%nat -> json_distinct v = true ->
  run_load s = LDocs [yaml_of_json_ordered v].
Proof. intros Hd Hdep Hdis. rewrite <- (yaml_of_json_distinct v Hdis). exact (text_load v s Hd Hdep). Qed.

(* the event API (Parser::next_event loop, Pipe.run_str): the events of the text are those of the value, the run is complete *)
Theorem text_events v s : json_doc_text v s -> (json_depth v < 256)%nat ->
  snd (run_str s) = PDone /\ evs_of (fst (run_str s)) = json_doc_events v.
Proof.
  intros Hd Hdep. rewrite DocRun.run_str_parse.
  pose proof (text_tokens v s Hd Hdep (2 * length s + 10)%nat (le_n _)) as H.
  destruct (scan_all _ _ _ _ _) as [toks se]. destruct H as (Hm & _ & Hl).
  apply (tokens_parse_all v toks false se _ Hm). unfold token in *. uc. lia.
Qed.
