(* The token-level skeleton of Model/SFetch.v under any lock at the token level ([klock]).

   Every fetch_* function, the dispatcher fetch_next_token, fetch_more_tokens, next_token and scan_all, run from
   related states, end the same way: related values and related states again, or the same error site at related
   markers.  TWO independent fuels everywhere.  The five character-level contracts of ScanLockDir.v, ScanLockFlow.v,
   ScanLockPlain.v and ScanLockBlock.v (directive, tag, flow / plain / block scalar) are hypotheses of the section; the contracts of the primitives and
   of scan_anchor come from ScanLockPrim.v.

   The alignment premises ([rn s1 0 <> 10], [noLF 3 (rm s1)]) are exactly the facts the dispatcher establishes before
   each fetch_*: skip_to_next_token stops at a character that is not a line feed ([lpost_al]), and a document marker
   that was just recognised contains no line feed ([n3are_noLF]).  What is not a plain lockstep step:
     fetch_flow_collection_start   increase_flow_level .. skip_non_blank is one step ([lwp_flow_open]): the flow level may
                                   go from 0 to 1, where the adjacency information becomes observable
     fetch_block_entry             the LAST queued token is compared (anchor / tag at column 0): related queues have
                                   related last elements, or are both empty ([F2_last_cons])
     fetch_value                   the key's token number and mark are related only while the key is possible; the
                                   queue position  sk_token_number - sc_tokens_parsed  is the same on both sides
                                   ([shift_sub]); so is the 1024-character / same-line test on the key of a flow pair
                                   ([k_far])
     fetch_flow_value              takes the agreement of the two sides on the adjacency test as a premise; the
                                   dispatcher has it from [k_adj_eqb], being inside a flow collection
     fetch_next_token              [fetch_next_token_shape], then the source's match on both sides ([dispatch_both]):
                                   the same arm, because the arm depends on the second character through blind classes
                                   only and on the adjacency test inside a flow collection only ([dispatch_sees])
     fetch_next_token_gen          the step after StreamStart from two states whose leading skip_to_next_token runs end
                                   in related states
     fetch_more_tokens             "a possible key sits at the head of the queue":  sk_token_number = sc_tokens_parsed
                                   on both sides ([shift_eqb]) *)
From Coq Require Import List NArith ZArith Bool Arith Lia.
Import ListNotations.
Require Import Parser SBase SPrim SDir SScalar SFetch Dispatch DispatchTie ScanLock ScanLockPrim.
Local Open Scope nat_scope.

(* small facts *)
Lemma rn_keep (t s : bst) : rm t = rm s -> rn s 0 <> 10%N -> rn t 0 <> 10%N.
Proof. intros R N. rewrite (rn_eq t s 0 R). exact N. Qed.
Lemma noLF_keep k (t s : bst) : rm t = rm s -> noLF k (rm s) -> noLF k (rm t).
Proof. intros R N. rewrite R. exact N. Qed.
Lemma docstart_noLF (s : bst) : docstart_val s = true -> noLF 3 (rm s).
Proof.
  unfold docstart_val. destruct (n3are s 45%N 45%N 45%N) eqn:E; [intros _|discriminate].
  eapply n3are_noLF; [| | |exact E]; reflexivity.
Qed.
Lemma docend_noLF (s : bst) : docend_val s = true -> noLF 3 (rm s).
Proof.
  unfold docend_val. destruct (n3are s 46%N 46%N 46%N) eqn:E; [intros _|discriminate].
  eapply n3are_noLF; [| | |exact E]; reflexivity.
Qed.
Lemma F2_rev {A B} (R : A -> B -> Prop) l1 l2 : Forall2 R l1 l2 -> Forall2 R (rev l1) (rev l2).
Proof.
  induction 1 as [|a b l1 l2 Hab H IH]; [constructor|]. cbn [rev]. apply Forall2_app; [exact IH|].
  constructor; [exact Hab|constructor].
Qed.
Lemma F2_last_cons {A B} (R : A -> B -> Prop) l1 l2 : Forall2 R l1 l2 -> forall a b d1 d2, R a b ->
  R (last (a :: l1) d1) (last (b :: l2) d2).
Proof.
  induction 1 as [|a' b' l1 l2 Hab' H IH]; intros a b d1 d2 Hab; [exact Hab|].
  change (R (last (a' :: l1) d1) (last (b' :: l2) d2)). apply IH. exact Hab'.
Qed.
(* the arm does not depend on how side 2 shows the second character, nor on the adjacency test outside a flow
   collection *)
Lemma dispatch_sees b1 c nc fl adj adj' : sees b1 -> (fl = true -> adj' = adj) ->
  dispatch c (b1 nc) fl adj' = dispatch c nc fl adj.
Proof.
  intros Hb HA. unfold dispatch. rewrite !(sees_is_blank_or_breakz _ Hb), !(sees_is_flow _ Hb).
  destruct fl; [rewrite (HA eq_refl)|]; reflexivity.
Qed.

(* [keep]: an alignment fact about a state [s] is moved to a state [t] with the same remaining text *)
Ltac keep :=
  repeat match goal with
  | RT : rm ?t = rm ?s, N : rn ?s 0 <> 10%N |- _ => pose proof (rn_keep t s RT N); clear N
  | RT : rm ?t = rm ?s, N : noLF ?k (rm ?s) |- _ => pose proof (noLF_keep k t s RT N); clear N
  end.
(* the same boolean test on both sides (syntactically) *)
Ltac same_if := match goal with |- lwp _ (if ?b then _ else _) (if ?b then _ else _) _ _ _ => destruct b end.

Section Fetch.
Context {b1 : chr -> chr} {M : marker -> marker -> Prop} {R : bst -> bst -> Prop}.
Context {dk : N} {K : marker -> marker -> simple_key -> simple_key -> Prop} (KL : klock b1 M R dk K).
Local Notation wp := (lwp M).
Let L : lock b1 M R := k_lock KL.

Lemma Mend_panic_r e n : Mend M e (SPanic n).
Proof. destruct e; exact I. Qed.
Lemma Mend_fuel_r e : Mend M e SFuel.
Proof. destruct e; exact I. Qed.
Lemma Mend_panic_l e n : Mend M (SPanic n) e.
Proof. destruct e; exact I. Qed.
Lemma Mend_fuel_l e : Mend M SFuel e.
Proof. destruct e; exact I. Qed.

Hypothesis H_dir : forall F1 F2 s1 s2, R s1 s2 -> rn s1 0 <> 10%N ->
  wp (scan_directive sops F1) (scan_directive sops F2) (lpost R (Mtok M)) s1 s2.
Hypothesis H_tag : forall F1 F2 s1 s2, R s1 s2 -> rn s1 0 <> 10%N ->
  wp (scan_tag sops F1) (scan_tag sops F2) (lpost R (Mtok M)) s1 s2.
Hypothesis H_flow : forall F1 F2 single s1 s2, R s1 s2 -> rn s1 0 <> 10%N ->
  wp (scan_flow_scalar sops F1 single) (scan_flow_scalar sops F2 single) (lpost R (Mtok M)) s1 s2.
Hypothesis H_plain : forall F1 F2 s1 s2, R s1 s2 -> rn s1 0 <> 10%N ->
  wp (scan_plain_scalar sops F1) (scan_plain_scalar sops F2) (lpost R (Mtok M)) s1 s2.
Hypothesis H_block : forall F1 F2 literal s1 s2, R s1 s2 -> rn s1 0 <> 10%N ->
  wp (scan_block_scalar sops F1 literal) (scan_block_scalar sops F2 literal) (lpost R (Mtok M)) s1 s2.

(* a unit-valued step that keeps the remaining text *)
Definition kpost (s1 : bst) : unit -> bst -> unit -> bst -> Prop :=
  fun _ t1 _ t2 => R t1 t2 /\ rm t1 = rm s1.
Lemma lwp_seq {B1 B2} (m1 m2 : BM unit) (f1 : unit -> BM B1) (f2 : unit -> BM B2)
  (Q : B1 -> bst -> B2 -> bst -> Prop) s1 s2 :
  wp m1 m2 (kpost s1) s1 s2 ->
  (forall t1 t2, R t1 t2 -> rm t1 = rm s1 -> wp (f1 tt) (f2 tt) Q t1 t2) ->
  wp (bind m1 f1) (bind m2 f2) Q s1 s2.
Proof.
  intros H HK. apply lwp_bind. eapply lwp_mono; [exact H|]. intros [] t1 [] t2 [HB HR]. apply HK; assumption.
Qed.

(* [sk lem]: one skeleton-only step  m ;;; rest  with the rule [lem : R s1 s2 -> skel_post -> wp m m Q s1 s2] *)
Ltac sk lem :=
  apply lwp_bind; apply lem; [eassumption|];
  let t1 := fresh "t1" in let t2 := fresh "t2" in let HT := fresh "HT" in let RT := fresh "RT" in
  intros t1 t2 HT RT; keep; clear RT.
(* close [lpost R eq tt t1 tt t2] / [kpost s tt t1 tt t2] *)
Ltac fin := split; [reflexivity|assumption].
Ltac kfin := split; [assumption|first [assumption|reflexivity]].

(* stream start / end *)
Theorem fetch_stream_start_ok : forall s1 s2, R s1 s2 ->
  wp fetch_stream_start fetch_stream_start (lpost R eq) s1 s2.
Proof.
  intros s1 s2 H. unfold fetch_stream_start. apply lwp_bind. apply lwp_get. cbv beta zeta.
  apply lwp_put. split; [reflexivity|].
  apply (k_set_sks KL).
  - apply (L_push L); [|apply Mtok_empty; exact (l_mark L _ _ H)]. apply (l_set_ska L). apply (l_set_ss L).
    rewrite <- (L_indents L H). apply (l_set_indent L). exact H.
  - constructor; [exact (k_blank KL _ _)|]. exact (k_sks KL _ _ H).
Qed.

Theorem fetch_stream_end_ok : forall s1 s2, R s1 s2 ->
  wp fetch_stream_end fetch_stream_end (lpost R eq) s1 s2.
Proof.
  intros s1 s2 H. unfold fetch_stream_end.
  apply lwp_bind. apply lwp_modify. cbv beta.
  match goal with |- lwp _ _ _ _ ?a ?b => assert (HU : R a b) end.
  { rewrite <- (L_col L H). destruct (m_col (sc_mark s1) =? 0)%N; [exact H|].
    exact (k_eol KL _ _ H). }
  match goal with |- lwp _ _ _ _ ?a ?b => generalize dependent a; generalize dependent b end.
  intros u2 u1 HU.
  apply lwp_bind. apply lwp_get. cbv beta.
  rewrite <- (F2_existsb _ (fun k => sk_required k && sk_possible k) (fun k => sk_required k && sk_possible k) _ _ (k_sks KL _ _ HU)).
  2:{ intros k1 k2 HK. symmetry. exact (K_rp KL _ _ _ _ HK). }
  destruct (existsb _ (sc_sks u1)); [apply (lwp_fail_mark L); exact HU|].
  apply lwp_bind. apply (lwp_put_l R).
  { apply (k_set_sks KL); [exact HU|]. apply (F2_map (K (sc_mark u1) (sc_mark u2))); [exact (k_sks KL _ _ HU)|].
    intros k1 k2 HK. exact (k_kill KL _ _ _ _ HK). }
  { reflexivity. }
  intros v1 v2 HV _.
  sk (lwp_unroll_indent L). sk (lwp_remove_simple_key KL). sk (lwp_disallow_simple_key L).
  apply lwp_bind. apply (lwp_mark L); [eassumption|]. intros HM.
  apply (lwp_push_tok L); [eassumption|apply Mtok_empty; exact HM|]. intros; fin.
Qed.

(* the entry points of the character-level scanners *)
Theorem fetch_directive_ok : forall F1 F2 s1 s2, R s1 s2 -> rn s1 0 <> 10%N ->
  wp (fetch_directive sops F1) (fetch_directive sops F2) (lpost R eq) s1 s2.
Proof.
  intros F1 F2 s1 s2 H N0. unfold fetch_directive.
  sk (lwp_unroll_indent L). sk (lwp_remove_simple_key KL). sk (lwp_disallow_simple_key L).
  eapply (lwp_call (R:=R)); [apply H_dir; eassumption|]. intros a1 a2 u1 u2 HTR HU.
  apply (lwp_push_tok L); [exact HU|exact HTR|]. intros; fin.
Qed.

Theorem fetch_tag_ok : forall F1 F2 s1 s2, R s1 s2 -> rn s1 0 <> 10%N ->
  wp (fetch_tag sops F1) (fetch_tag sops F2) (lpost R eq) s1 s2.
Proof.
  intros F1 F2 s1 s2 H N0. unfold fetch_tag.
  sk (lwp_save_simple_key KL). sk (lwp_disallow_simple_key L).
  eapply (lwp_call (R:=R)); [apply H_tag; eassumption|]. intros a1 a2 u1 u2 HTR HU.
  apply (lwp_push_tok L); [exact HU|exact HTR|]. intros; fin.
Qed.

Theorem fetch_anchor_ok : forall F1 F2 alias s1 s2, R s1 s2 -> rn s1 0 <> 10%N ->
  wp (fetch_anchor sops F1 alias) (fetch_anchor sops F2 alias) (lpost R eq) s1 s2.
Proof.
  intros F1 F2 alias s1 s2 H N0. unfold fetch_anchor.
  sk (lwp_save_simple_key KL). sk (lwp_disallow_simple_key L).
  eapply (lwp_call (R:=R)); [apply (scan_anchor_ok L); eassumption|]. intros a1 a2 u1 u2 HTR HU.
  apply (lwp_push_tok L); [exact HU|exact HTR|]. intros; fin.
Qed.

Theorem fetch_block_scalar_ok : forall F1 F2 literal s1 s2, R s1 s2 -> rn s1 0 <> 10%N ->
  wp (fetch_block_scalar sops F1 literal) (fetch_block_scalar sops F2 literal) (lpost R eq) s1 s2.
Proof.
  intros F1 F2 literal s1 s2 H N0. unfold fetch_block_scalar.
  sk (lwp_save_simple_key KL). sk (lwp_allow_simple_key L).
  eapply (lwp_call (R:=R)); [apply H_block; eassumption|]. intros a1 a2 u1 u2 HTR HU.
  apply (lwp_push_tok L); [exact HU|exact HTR|]. intros; fin.
Qed.

Theorem fetch_flow_scalar_ok : forall F1 F2 single s1 s2, R s1 s2 -> rn s1 0 <> 10%N ->
  wp (fetch_flow_scalar sops F1 single) (fetch_flow_scalar sops F2 single) (lpost R eq) s1 s2.
Proof.
  intros F1 F2 single s1 s2 H N0. unfold fetch_flow_scalar.
  sk (lwp_save_simple_key KL). sk (lwp_disallow_simple_key L).
  eapply (lwp_call (R:=R)); [apply H_flow; eassumption|]. intros a1 a2 u1 u2 HTR HU.
  eapply (lwp_call_al_eq (R:=R)); [apply (skip_to_next_token_ok L); exact HU|]. intros [] v1 v2 HV _.
  apply lwp_bind. apply (lwp_modify_l R); [apply (l_set_adj_here L); exact HV|reflexivity|]. intros w1 w2 HW _.
  apply (lwp_push_tok L); [exact HW|exact HTR|]. intros; fin.
Qed.

Theorem fetch_plain_scalar_ok : forall F1 F2 s1 s2, R s1 s2 -> rn s1 0 <> 10%N ->
  wp (fetch_plain_scalar sops F1) (fetch_plain_scalar sops F2) (lpost R eq) s1 s2.
Proof.
  intros F1 F2 s1 s2 H N0. unfold fetch_plain_scalar.
  sk (lwp_save_simple_key KL). sk (lwp_disallow_simple_key L).
  eapply (lwp_call (R:=R)); [apply H_plain; eassumption|]. intros a1 a2 u1 u2 HTR HU.
  apply (lwp_push_tok L); [exact HU|exact HTR|]. intros; fin.
Qed.

(* flow collections *)
Theorem fetch_flow_collection_start_ok : forall F1 F2 seq s1 s2, R s1 s2 -> rn s1 0 <> 10%N ->
  wp (fetch_flow_collection_start sops F1 seq) (fetch_flow_collection_start sops F2 seq) (lpost R eq) s1 s2.
Proof.
  intros F1 F2 seq s1 s2 H N0. unfold fetch_flow_collection_start.
  sk (lwp_save_simple_key KL). sk (lwp_roll_one_col_indent L).
  match goal with HH : R ?a ?b, NN : rn ?a 0 <> 10%N |- _ =>
    pose proof (l_mark L _ _ HH) as HM0; apply (lwp_flow_open KL); [exact HH|exact NN|] end.
  intros u1 u2 HU _.
  apply lwp_bind. apply (lwp_modify_l R).
  { rewrite <- (L_ifms L HU). apply (l_set_ifms L). exact HU. }
  { reflexivity. }
  intros v1 v2 HV _.
  eapply (lwp_call_eq (R:=R)); [apply (skip_ws_to_eol_ok L); exact HV|]. intros tw w1 w2 HW.
  apply lwp_bind. apply (lwp_mark L); [exact HW|]. intros HM1.
  apply (lwp_push_tok L); [exact HW|apply Mtok_mk; apply Msp_mk; assumption|]. intros; fin.
Qed.

Lemma lwp_check_flow_closer seq (Q : unit -> bst -> unit -> bst -> Prop) s1 s2 :
  R s1 s2 -> Q tt s1 tt s2 -> wp (check_flow_closer seq) (check_flow_closer seq) Q s1 s2.
Proof.
  intros H HQ. unfold check_flow_closer. apply lwp_bind. apply lwp_get. cbv beta. l_sync L H.
  destruct (sc_ifms s1) as [|st r]; [apply lwp_ret; exact HQ|]. cbv zeta.
  destruct (Bool.eqb _ _); [apply lwp_ret; exact HQ|]. apply lwp_fail. exact (l_mark L _ _ H).
Qed.

Theorem fetch_flow_collection_end_ok : forall F1 F2 seq s1 s2, R s1 s2 -> rn s1 0 <> 10%N ->
  wp (fetch_flow_collection_end sops F1 seq) (fetch_flow_collection_end sops F2 seq) (lpost R eq) s1 s2.
Proof.
  intros F1 F2 seq s1 s2 H N0. unfold fetch_flow_collection_end.
  apply lwp_bind. apply lwp_check_flow_closer; [exact H|]. cbv beta.
  sk (lwp_remove_simple_key KL). sk (lwp_decrease_flow_level KL). sk (lwp_disallow_simple_key L).
  apply lwp_seq.
  { destruct seq.
    - apply lwp_bind. apply (lwp_mark L); [eassumption|]. intros HM.
      apply (lwp_end_implicit_mapping L); [eassumption|exact HM|]. intros; kfin.
    - apply lwp_ret. kfin. }
  intros u1 u2 HU RU. keep. clear RU.
  apply lwp_bind. apply (lwp_modify_l R).
  { rewrite <- (L_ifms L HU). apply (l_set_ifms L). exact HU. }
  { reflexivity. }
  intros v1 v2 HV RV. keep. clear RV.
  apply lwp_bind. apply (lwp_mark L); [exact HV|]. intros HM0.
  apply lwp_bind. apply (lwp_skip_non_blank L); [exact HV|eassumption|]. intros w1 w2 HW _.
  eapply (lwp_call_eq (R:=R)); [apply (skip_ws_to_eol_ok L); exact HW|]. intros tw x1 x2 HX.
  apply lwp_bind. apply lwp_modify. cbv beta.
  match goal with |- lwp _ _ _ _ ?a ?b => assert (HY : R a b) end.
  { rewrite <- (L_flow_level L HX). destruct (0 <? sc_flow_level x1)%N; [apply (l_set_adj_here L)|]; exact HX. }
  match goal with |- lwp _ _ _ _ ?a ?b => generalize dependent a; generalize dependent b end.
  intros y2 y1 HY.
  apply lwp_bind. apply (lwp_mark L); [exact HY|]. intros HM1.
  apply (lwp_push_tok L); [exact HY|apply Mtok_mk; apply Msp_mk; assumption|]. intros; fin.
Qed.

Theorem fetch_flow_entry_ok : forall F1 F2 s1 s2, R s1 s2 -> rn s1 0 <> 10%N ->
  wp (fetch_flow_entry sops F1) (fetch_flow_entry sops F2) (lpost R eq) s1 s2.
Proof.
  intros F1 F2 s1 s2 H N0. unfold fetch_flow_entry.
  sk (lwp_remove_simple_key KL). sk (lwp_allow_simple_key L).
  apply lwp_bind. apply (lwp_mark L); [eassumption|]. intros HM0.
  apply lwp_bind. apply (lwp_end_implicit_mapping L); [eassumption|exact HM0|]. intros u1 u2 HU RU. keep. clear RU.
  apply lwp_bind. apply (lwp_skip_non_blank L); [exact HU|eassumption|]. intros v1 v2 HV _.
  eapply (lwp_call_eq (R:=R)); [apply (skip_ws_to_eol_ok L); exact HV|]. intros tw w1 w2 HW.
  apply lwp_bind. apply (lwp_mark L); [exact HW|]. intros HM1.
  apply (lwp_push_tok L); [exact HW|apply Mtok_mk; apply Msp_mk; assumption|]. intros; fin.
Qed.

(* block entry *)
Theorem fetch_block_entry_ok : forall F1 F2 s1 s2, R s1 s2 -> rn s1 0 <> 10%N ->
  wp (fetch_block_entry sops F1) (fetch_block_entry sops F2) (lpost R eq) s1 s2.
Proof.
  intros F1 F2 s1 s2 H N0. unfold fetch_block_entry.
  apply lwp_bind. apply lwp_get. cbv beta zeta. l_sync L H.
  same_if; [apply (lwp_fail_mark L); exact H|].
  same_if; [apply (lwp_fail_mark L); exact H|].
  apply lwp_bind.
  apply lwp_mono with (Q := fun (_ : unit) (t1 : bst) (_ : unit) (t2 : bst) => t1 = s1 /\ t2 = s2).
  { pose proof (l_tokens L _ _ H) as HT. rewrite <- (F2_nil_iff ((Mtok M)) _ _ HT).
    destruct HT as [|a b l1 l2 Hab HT]; [cbn [last]; lazy beta iota; apply lwp_ret; split; reflexivity|].
    pose proof (F2_last_cons ((Mtok M)) l1 l2 HT a b (span_empty mk0, TStreamEnd) (span_empty mk0, TStreamEnd) Hab) as HL.
    revert HL. destruct (last (a :: l1) _) as [sp1 tk1]. destruct (last (b :: l2) _) as [sp2 tk2].
    intros [[HS _] HE]. cbn [fst snd] in HS, HE. subst tk2.
    rewrite <- (l_col L _ _ HS).
    destruct tk1; try (apply lwp_ret; split; reflexivity);
      (same_if; [apply lwp_fail; exact HS|apply lwp_ret; split; reflexivity]). }
  intros [] t1 [] t2 [-> ->].
  apply lwp_bind. apply (lwp_skip_non_blank L); [exact H|exact N0|]. intros u1 u2 HU _.
  apply lwp_bind. apply (lwp_roll_indent KL); [exact HU|exact (l_mark L _ _ H)|exact I|]. intros v1 v2 HV _.
  eapply (lwp_call_eq (R:=R)); [apply (skip_ws_to_eol_ok L); exact HV|]. intros tw w1 w2 HW.
  apply lwp_bind. apply (lwp_look L); [exact HW|]. intros x1 x2 HX _ _ _ _ _.
  (* [c] may be a line feed here: the test on [nc] is guarded by [c = '-'] *)
  apply lwp_bind. apply (lwp_peekn_raw M 0). apply lwp_bind. apply (lwp_peekn_raw M 1). cbv beta.
  rewrite <- !andb_assoc.
  rewrite (guard1_seen b1 (l_sees L) x1 x2 (l_seen L _ _ HX) is_blank_or_breakz 45%N eq_refl (sees_is_blank_or_breakz _ (l_sees L))).
  same_if; [apply (lwp_mark_fail L); exact HX|].
  eapply (lwp_call_eq (R:=R)); [apply (skip_ws_to_eol_ok L); exact HX|]. intros tw' y1 y2 HY.
  apply lwp_bind. apply (lwp_look L); [exact HY|]. intros z1 z2 HZ _ _ _ _ _.
  apply lwp_bind. apply (lwp_peek L); [exact HZ|]. cbv beta. b1_norm L.
  eapply (lwp_call_eq (R:=R)).
  { same_if; [apply (lwp_roll_one_col_indent L); [exact HZ|]; intros; fin|apply lwp_ret; fin]. }
  intros [] a1 a2 HA.
  sk (lwp_remove_simple_key KL). sk (lwp_allow_simple_key L).
  apply lwp_bind. apply (lwp_mark L); [eassumption|]. intros HM.
  apply (lwp_push_tok L); [eassumption|apply Mtok_empty; exact HM|]. intros; fin.
Qed.

(* document indicators *)
Theorem fetch_document_indicator_ok : forall t s1 s2, R s1 s2 -> noLF 3 (rm s1) ->
  wp (fetch_document_indicator sops t) (fetch_document_indicator sops t) (lpost R eq) s1 s2.
Proof.
  intros t s1 s2 H N3. unfold fetch_document_indicator.
  sk (lwp_unroll_indent L). sk (lwp_remove_simple_key KL). sk (lwp_disallow_simple_key L).
  apply lwp_bind. apply (lwp_mark L); [eassumption|]. intros HM0.
  apply lwp_bind. apply (lwp_skip_n_non_blank L); [eassumption|eassumption|]. intros u1 u2 HU _.
  apply lwp_bind. apply (lwp_mark L); [exact HU|]. intros HM1.
  apply (lwp_push_tok L); [exact HU|apply Mtok_mk; apply Msp_mk; assumption|]. intros; fin.
Qed.

(* key / value *)
Theorem fetch_key_ok : forall F1 F2 s1 s2, R s1 s2 -> rn s1 0 <> 10%N ->
  wp (fetch_key sops F1) (fetch_key sops F2) (lpost R eq) s1 s2.
Proof.
  intros F1 F2 s1 s2 H N0. unfold fetch_key.
  apply lwp_bind. apply lwp_get. cbv beta zeta. l_sync L H.
  apply lwp_seq.
  { same_if.
    - same_if; [apply (lwp_fail_mark L); exact H|].
      apply (lwp_roll_indent KL); [exact H|exact (l_mark L _ _ H)|exact I|]. intros; kfin.
    - apply lwp_modify. rewrite <- (L_ifms L H).
      destruct (sc_ifms s1) as [|[| | |] r]; (split; [first [exact H|apply (l_set_ifms L); exact H]|reflexivity]). }
  intros u1 u2 HU RU. keep. clear RU.
  sk (lwp_remove_simple_key KL).
  apply lwp_seq.
  { same_if; [apply (lwp_allow_simple_key L)|apply (lwp_disallow_simple_key L)]; try eassumption; intros; kfin. }
  intros v1 v2 HV RV. keep. clear RV.
  apply lwp_bind. apply (lwp_skip_non_blank L); [exact HV|eassumption|]. intros w1 w2 HW _.
  eapply (lwp_call_al_eq (R:=R)); [apply (skip_yaml_whitespace_ok L); exact HW|]. intros [] x1 x2 HX _.
  apply lwp_bind. apply (lwp_peek L); [exact HX|]. cbv beta. b1_norm L.
  same_if; [apply (lwp_mark_fail L); exact HX|].
  apply lwp_bind. apply (lwp_mark L); [exact HX|]. intros HM.
  apply (lwp_push_tok L); [exact HX|apply Mtok_mk; apply Msp_mk; [exact (l_mark L _ _ H)|exact HM]|]. intros; fin.
Qed.

Theorem fetch_value_ok : forall F1 F2 s1 s2, R s1 s2 -> rn s1 0 <> 10%N ->
  wp (fetch_value sops F1) (fetch_value sops F2) (lpost R eq) s1 s2.
Proof.
  intros F1 F2 s1 s2 H N0. unfold fetch_value.
  apply lwp_bind. apply lwp_get. cbv beta.
  pose proof (k_sks KL _ _ H) as HK. destruct HK as [|k1 k2 r1 r2 HK HR]; [exact I|].
  apply lwp_bind. apply lwp_ret. cbv beta zeta. l_sync L H.
  match goal with |- context [if ?b then modify _ else ret tt] => remember b as is_ifm eqn:Eifm; clear Eifm end.
  apply lwp_seq.
  { same_if; [|apply lwp_ret; kfin]. apply lwp_modify. split; [|reflexivity].
    rewrite <- (L_ifms L H). apply (l_set_ifms L). exact H. }
  intros u1 u2 HU RU. keep. clear RU.
  apply lwp_bind. apply (lwp_skip_non_blank L); [exact HU|eassumption|]. intros v1 v2 HV _.
  apply lwp_bind.
  apply lwp_mono with (Q := fun (c1 : chr) (t1 : bst) (c2 : chr) (t2 : bst) => R t1 t2 /\ (c2 =? 9)%N = (c1 =? 9)%N).
  { same_if; [|apply lwp_ret; split; [exact HV|reflexivity]].
    apply (lwp_look_ch L); [exact HV|]. intros w1 w2 HW _ _ _ _. cbv beta. b1_norm L. split; [exact HW|reflexivity]. }
  intros c1 w1 c2 w2 [HW Ec]. cbv beta. rewrite Ec. clear Ec.
  eapply (lwp_call_eq (R:=R)).
  { same_if; [|apply lwp_ret; fin].
    eapply (lwp_call_eq (R:=R)); [apply (skip_ws_to_eol_ok L); exact HW|]. intros tw x1 x2 HX.
    same_if; [|apply lwp_ret; fin].
    apply lwp_bind. apply (lwp_peek L); [exact HX|]. cbv beta. b1_norm L.
    same_if; [apply (lwp_mark_fail L); exact HX|apply lwp_ret; fin]. }
  intros [] x1 x2 HX.
  rewrite <- (k_possible KL _ _ _ _ HK).
  destruct (sk_possible k1) eqn:EP.
  - (* the pending simple key becomes a KEY token *)
    pose proof (k_mark KL _ _ _ _ HK EP) as HKM. rewrite <- (k_number KL _ _ _ _ HK EP), <- (l_col L _ _ HKM).
    apply lwp_bind. apply lwp_get. cbv beta. l_sync L HX. rewrite <- (k_tp KL _ _ HX), !shift_ltb, !shift_sub.
    apply lwp_bind. same_if; [apply lwp_panic_l|]. apply lwp_ret.
    apply lwp_bind. apply (lwp_insert_token L); [exact HX|apply Mtok_empty; exact HKM|]. intros y1 y2 HY _.
    eapply (lwp_call_eq (R:=R)).
    { same_if; [|apply lwp_ret; fin].
      match goal with |- lwp _ (if ?b1 then _ else _) (if ?b2 then _ else _) _ _ _ =>
        replace b2 with b1 by (symmetry; exact (k_far KL _ _ _ _ HK (l_mark L _ _ H) EP)) end.
      same_if; [apply lwp_fail; exact (l_mark L _ _ H)|]. same_if; [|apply lwp_ret; fin].
      apply (lwp_insert_token L); [exact HY|apply Mtok_empty; exact HKM|]. intros; fin. }
    intros [] z1 z2 HZ.
    apply lwp_bind. apply (lwp_roll_indent KL); [exact HZ|exact HKM|reflexivity|]. intros a1 a2 HA _.
    sk (lwp_roll_one_col_indent L).
    apply lwp_bind. apply lwp_modify. cbv beta.
    match goal with |- lwp _ _ _ _ ?a ?b => assert (HB : R a b) end.
    { match goal with HH : R ?a ?b |- R (match sc_sks ?a with _ => _ end) _ =>
        pose proof (k_sks KL _ _ HH) as HS; destruct HS as [|q1 q2 l1 l2 HQ HL];
          [exact HH|apply (k_set_sks KL); [exact HH|constructor; [exact (k_kill KL _ _ _ _ HQ)|exact HL]]] end. }
    match goal with |- lwp _ _ _ _ ?a ?b => generalize dependent a; generalize dependent b end.
    intros b2 b1' HB.
    sk (lwp_disallow_simple_key L).
    apply (lwp_push_tok L); [eassumption|apply Mtok_empty; exact (l_mark L _ _ H)|]. intros; fin.
  - (* no simple key: an empty key *)
    eapply (lwp_call_eq (R:=R)).
    { same_if; [|apply lwp_ret; fin]. apply (lwp_push_tok L); [exact HX|apply Mtok_empty; exact (l_mark L _ _ H)|]. intros; fin. }
    intros [] y1 y2 HY.
    apply lwp_bind. apply lwp_get. cbv beta. l_sync L HY.
    eapply (lwp_call_eq (R:=R)).
    { same_if; [|apply lwp_ret; fin]. same_if; [apply lwp_fail; exact (l_mark L _ _ H)|].
      apply (lwp_roll_indent KL); [exact HY|exact (l_mark L _ _ H)|exact I|]. intros; fin. }
    intros [] z1 z2 HZ.
    sk (lwp_roll_one_col_indent L).
    eapply (lwp_call_eq (R:=R)).
    { same_if; [apply (lwp_allow_simple_key L)|apply (lwp_disallow_simple_key L)]; try eassumption; intros; fin. }
    intros [] a1 a2 HA.
    apply (lwp_push_tok L); [exact HA|apply Mtok_empty; exact (l_mark L _ _ H)|]. intros; fin.
Qed.

(* adjacent_value_allowed_at is looked at: the two sides must agree on the test (they do inside a flow collection) *)
Theorem fetch_flow_value_ok : forall F1 F2 s1 s2, R s1 s2 -> rn s1 0 <> 10%N ->
  (m_index (sc_mark s2) =? sc_adjacent s2)%N = (m_index (sc_mark s1) =? sc_adjacent s1)%N ->
  wp (fetch_flow_value sops F1) (fetch_flow_value sops F2) (lpost R eq) s1 s2.
Proof.
  intros F1 F2 s1 s2 H N0 HA. unfold fetch_flow_value.
  apply lwp_bind. apply (lwp_peekn L 1); [exact H|apply noLF_1; exact N0|].
  apply lwp_bind. apply lwp_get. cbv beta. b1_norm L. rewrite HA.
  same_if; [apply (lwp_fail_mark L); exact H|]. apply fetch_value_ok; assumption.
Qed.

(* the dispatcher *)
(* closes  a1 = a2 /\ t1 = w1 /\ t2 = w2 /\ (a1 = true -> v = true)  for a marker test that returned [false] without
   looking (the premise is absurd) or its value [v] itself (the premise is the conclusion) *)
Ltac q4 := split; [reflexivity|split; [reflexivity|split; [reflexivity|intros E; first [discriminate E|exact E]]]].

(* The step after StreamStart, from ANY two states (not necessarily related) whose leading skip_to_next_token runs -
   possibly with different fuels - end in related states: this is what is used at a document boundary, where side 2
   has to cross the rest of the marker line first (ScanShiftTop.v). *)
Theorem fetch_next_token_gen F1 F2 (s1 s2 : bst) :
  sc_stream_start s1 = true -> sc_stream_start s2 = true ->
  wp (skip_to_next_token sops F1) (skip_to_next_token sops F2) (lpost_al R eq) (bump 1 s1) (bump 1 s2) ->
  wp (fetch_next_token sops F1) (fetch_next_token sops F2) (lpost R eq) s1 s2.
Proof.
  intros ES1 ES2 HSK. rewrite (fetch_next_token_shape sops F1), (fetch_next_token_shape sops F2).
  eapply lwp_bind_eval; [apply look_ok|apply look_ok|].
  apply lwp_bind. apply lwp_get. cbv beta.
  change (sc_stream_start (bump 1 s1)) with (sc_stream_start s1). change (sc_stream_start (bump 1 s2)) with (sc_stream_start s2).
  rewrite ES1, ES2. cbn [negb].
  eapply (lwp_call_al_eq (R:=R)); [exact HSK|]. intros [] v1 v2 HV NV.
  sk (lwp_stale_simple_keys KL).
  apply lwp_bind. apply (lwp_mark L); [eassumption|]. intros HM. cbv beta.
  match goal with HH : R ?a ?b |- context [m_col (sc_mark ?b)] => rewrite <- (L_col L HH) end.
  sk (lwp_unroll_indent L).
  apply lwp_bind. apply (lwp_look L); [eassumption|]. intros w1 w2 HW RW _ _ _ _. keep. clear RW.
  apply lwp_bind. apply (lwp_next_is L); [exact HW|exact (sees_is_z _ (l_sees L))|].
  same_if; [apply fetch_stream_end_ok; exact HW|].
  apply lwp_bind. apply lwp_get. cbv beta. l_sync L HW.
  apply lwp_bind. apply (lwp_peek L); [exact HW|]. cbv beta. b1_norm L.
  (* document markers at column 0: found on one side iff found on the other, whatever the alignment *)
  apply lwp_bind.
  apply lwp_mono with (Q := fun (a1 : bool) (t1 : bst) (a2 : bool) (t2 : bst) =>
     a1 = a2 /\ t1 = w1 /\ t2 = w2 /\ (a1 = true -> docstart_val w1 = true)).
  { same_if; [|apply lwp_ret; q4]. same_if; [apply lwp_ret; q4|].
    apply (lwp_next_is_document_start L); [exact HW|]. q4. }
  intros dstart ? ? ? (<- & -> & -> & HDS).
  apply lwp_bind.
  apply lwp_mono with (Q := fun (a1 : bool) (t1 : bst) (a2 : bool) (t2 : bst) =>
     a1 = a2 /\ t1 = w1 /\ t2 = w2 /\ (a1 = true -> docend_val w1 = true)).
  { same_if; [|apply lwp_ret; q4]. apply (lwp_next_is_document_end L); [exact HW|]. q4. }
  intros dend ? ? ? (<- & -> & -> & HDE).
  same_if; [apply fetch_directive_ok; assumption|].
  same_if; [apply fetch_document_indicator_ok; [exact HW|apply docstart_noLF; apply HDS; reflexivity]|].
  same_if.
  { eapply (lwp_call_eq (R:=R));
      [apply fetch_document_indicator_ok; [exact HW|apply docend_noLF; apply HDE; reflexivity]|].
    intros [] z1 z2 HZ.
    eapply (lwp_call_eq (R:=R)); [apply (skip_ws_to_eol_ok L); exact HZ|]. intros tw a1 a2 HA.
    apply lwp_bind. apply (lwp_next_is L); [exact HA|exact (sees_is_breakz _ (l_sees L))|].
    same_if; [apply lwp_ret; fin|apply (lwp_mark_fail L); exact HA]. }
  same_if; [apply (lwp_fail_mark L); exact HW|].
  (* the character dispatch: the first character is not a line feed, so the second is aligned too *)
  apply lwp_bind. apply (lwp_peek L); [exact HW|].
  apply lwp_bind. apply (lwp_peekn L 1); [exact HW|apply noLF_1; assumption|]. cbv beta.
  match goal with N0 : rn w1 0 <> 10%N |- _ => rewrite (sees_other _ (l_sees L) _ N0) end.
  apply (dispatch_both (fun m1 m2 => wp m1 m2 (lpost R eq) w1 w2)).
  { rewrite <- (L_flow_level L HW). apply dispatch_sees; [exact (l_sees L)|]. intros HFL.
    apply (k_adj_eqb KL _ _ HW). apply N.ltb_lt in HFL. lia. }
  intros [] Hp; cbn [run_dact dact_pre] in Hp |- *.
  - apply fetch_flow_collection_start_ok; assumption.
  - apply fetch_flow_collection_end_ok; assumption.
  - apply fetch_flow_entry_ok; assumption.
  - apply fetch_block_entry_ok; assumption.
  - apply fetch_key_ok; assumption.
  - apply fetch_value_ok; assumption.
  - apply fetch_flow_value_ok; [assumption|assumption|]. apply (k_adj_eqb KL _ _ HW).
    destruct Hp as [_ HFL]. apply N.ltb_lt in HFL. lia.
  - apply fetch_anchor_ok; assumption.
  - apply fetch_tag_ok; assumption.
  - apply fetch_block_scalar_ok; assumption.
  - apply fetch_flow_scalar_ok; assumption.
  - apply fetch_plain_scalar_ok; assumption.
  - apply (lwp_fail_mark L); exact HW.
Qed.

Theorem fetch_next_token_ok : forall F1 F2 s1 s2, R s1 s2 ->
  wp (fetch_next_token sops F1) (fetch_next_token sops F2) (lpost R eq) s1 s2.
Proof.
  intros F1 F2 s1 s2 H. destruct (sc_stream_start s1) eqn:ES.
  - apply fetch_next_token_gen; [exact ES|rewrite <- (L_stream_start L H); exact ES|].
    apply (skip_to_next_token_ok L). apply (l_bump L). exact H.
  - rewrite (fetch_next_token_shape sops F1), (fetch_next_token_shape sops F2).
    apply lwp_bind. apply (lwp_look L); [exact H|]. intros u1 u2 HU _ E1 _ _ _.
    apply lwp_bind. apply lwp_get. cbv beta. l_sync L HU.
    replace (sc_stream_start u1) with false by (symmetry; destruct (ers_fields _ _ E1) as (_ & _ & E & _); congruence).
    cbn [negb]. apply fetch_stream_start_ok; exact HU.
Qed.


(* fetch_more_tokens / next_token / scan_all *)
Theorem fetch_more_tokens_ok : forall F1 F2 n1 n2 s1 s2, R s1 s2 ->
  wp (fetch_more_tokens sops F1 n1) (fetch_more_tokens sops F2 n2) (lpost R eq) s1 s2.
Proof.
  intros F1 F2 n1. induction n1 as [|n1 IH]; intros n2 s1 s2 H; [exact I|].
  destruct n2 as [|n2]; [apply lwp_oof_r|]. cbn [fetch_more_tokens].
  apply lwp_bind. apply lwp_get. cbv beta.
  eapply (lwp_call_eq (R:=R)).
  { pose proof (l_tokens L _ _ H) as HT. destruct HT as [|a b l1 l2 _ _]; [apply lwp_ret; fin|].
    sk (lwp_stale_simple_keys KL). apply lwp_bind. apply lwp_get. cbv beta. apply lwp_ret. split; [|assumption].
    match goal with HH : R ?a ?b |- _ = existsb _ (sc_sks ?b) =>
      rewrite <- (k_tp KL _ _ HH); apply (F2_existsb _ _ _ _ _ (k_sks KL _ _ HH)) end.
    intros k1 k2 HK. rewrite <- (k_possible KL _ _ _ _ HK). destruct (sk_possible k1) eqn:EP; [|reflexivity].
    rewrite <- (k_number KL _ _ _ _ HK EP), shift_eqb. reflexivity. }
  intros need u1 u2 HU. destruct need.
  - eapply (lwp_call_eq (R:=R)); [apply fetch_next_token_ok; exact HU|]. intros [] v1 v2 HV. apply IH. exact HV.
  - apply lwp_modify. split; [reflexivity|]. apply (l_set_ta L). exact HU.
Qed.

Theorem next_token_ok : forall F1 F2 s1 s2, R s1 s2 ->
  wp (next_token sops F1) (next_token sops F2) (lpost R (Motok M)) s1 s2.
Proof.
  intros F1 F2 s1 s2 H. unfold next_token.
  apply lwp_bind. apply lwp_get. cbv beta. l_sync L H.
  same_if; [apply lwp_ret; split; [exact I|exact H]|].
  eapply (lwp_call_eq (R:=R)).
  { same_if; [apply lwp_ret; fin|apply fetch_more_tokens_ok; exact H]. }
  intros [] u1 u2 HU.
  apply lwp_bind. apply lwp_get. cbv beta. l_sync L HU.
  pose proof (l_tokens L _ _ HU) as HT. destruct HT as [|a b l1 l2 HAB HL]; [apply (lwp_fail_mark L); exact HU|].
  apply lwp_bind. apply (lwp_put_l R).
  { apply (k_set_tp KL); [|rewrite <- (k_tp KL _ _ HU); lia]. apply (l_set_ta L). apply (l_set_tokens L); [exact HU|exact HL]. }
  { reflexivity. }
  intros v1 v2 HV _.
  rewrite <- (proj2 HAB).
  eapply (lwp_call_eq (R:=R)).
  { destruct (snd a); try (apply lwp_ret; fin). apply lwp_modify. split; [reflexivity|]. apply (l_set_se L). exact HV. }
  intros [] w1 w2 HW. apply lwp_ret. split; [exact HAB|exact HW].
Qed.

Theorem scan_all_ok : forall F1 F2 n1 n2 s1 s2 acc1 acc2, R s1 s2 -> Forall2 (Mtok M) acc1 acc2 ->
  Mend M (snd (scan_all sops F1 n1 s1 acc1)) (snd (scan_all sops F2 n2 s2 acc2))
  /\ (proper_end (snd (scan_all sops F1 n1 s1 acc1)) -> proper_end (snd (scan_all sops F2 n2 s2 acc2)) ->
      Forall2 (Mtok M) (fst (scan_all sops F1 n1 s1 acc1)) (fst (scan_all sops F2 n2 s2 acc2))).
Proof.
  intros F1 F2 n1. induction n1 as [|n1 IH]; intros n2 s1 s2 acc1 acc2 H HA.
  { cbn [scan_all snd fst]. split; [apply Mend_fuel_l|intros []]. }
  destruct n2 as [|n2].
  { cbn [scan_all snd fst]. split; [apply Mend_fuel_r|intros _ []]. }
  pose proof (lwp_elim M _ _ _ _ _ (next_token_ok F1 F2 s1 s2 H)) as HN.
  cbn [scan_all].
  destruct (next_token sops F1 s1) as [[o1 t1]|e1 k1|p1|].
  - destruct (next_token sops F2 s2) as [[o2 t2]|e2 k2|p2|].
    + destruct HN as [HO HT]. destruct o1 as [a1|], o2 as [a2|].
      * apply IH; [exact HT|]. constructor; [exact HO|exact HA].
      * destruct HO.
      * destruct HO.
      * cbn [snd fst]. split; [exact I|]. intros _ _. apply F2_rev. exact HA.
    + destruct HN.
    + destruct o1 as [a1|]; cbn [snd fst]; (split; [apply Mend_panic_r|intros _ []]).
    + destruct o1 as [a1|]; cbn [snd fst]; (split; [apply Mend_fuel_r|intros _ []]).
  - destruct (next_token sops F2 s2) as [[o2 t2]|e2 k2|p2|].
    + destruct HN.
    + cbn [snd fst]. split; [exact HN|]. intros _ _. apply F2_rev. exact HA.
    + cbn [snd fst]. split; [apply Mend_panic_r|intros _ []].
    + cbn [snd fst]. split; [apply Mend_fuel_r|intros _ []].
  - cbn [snd fst]. split; [apply Mend_panic_l|intros []].
  - cbn [snd fst]. split; [apply Mend_fuel_l|intros []].
Qed.

End Fetch.
