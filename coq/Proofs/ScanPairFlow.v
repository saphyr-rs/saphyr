(* The scanner over the buffered input against the scanner over the string input, in the calculus of ScanPair.v
   ([rwp] is [rwpG strict N0]): the QUOTED (flow) SCALAR family.

     scan_flow_scalar_ok : rel_scan_flow_scalar cap strict N0        (after the section: [forall cap, 8 <= cap -> ...])

   scan_flow_scalar and its helpers (read_hex, resolve_escape, consume_nonws, flow_blanks, the main loop) run in
   LOCKSTEP over the two back-ends: every character either side reads has been buffered by a preceding lookahead
   ([look 2] in consume_nonws, [look 3] before an escaped line break, [look n] (n <= 8 <= cap) before the n hex digits
   of \x \u \U, [look 1]/[look 2] in the blank loop, [look 4] at the head of the main loop), so both sides read the
   string side's characters, take the same branches, and every skip consumes a buffered character.

   Reusable rules (all take [cap cap_ge] after the section closes; [Q] annotated [_ -> st1 -> _ -> st2 -> Prop]):
     rwp_col_lt_indent       SR s1 s2 -> Q (col_lt_indent_val s1) s1 (same) s2 -> ..      (no cap: stated outside)
     rwp_read_hex n i acc start    SR s1 s2 -> i + n <= bl2 s2 -> (forall v, Q v s1 v s2) -> ..
     rwp_resolve_escape start      SR s1 s2 -> 2 <= bl2 s2 -> (forall r t1 t2, SR t1 t2 -> Q r t1 r t2) -> ..
     rwp_consume_nonws fuel single acc start   SR s1 s2 -> (forall r t1 t2, SR t1 t2 -> Q r t1 r t2) -> ..
     rwp_flow_blanks fuel lbl lb tb ws   SR s1 s2 -> 1 <= bl2 s2 -> (forall r t1 t2, SR t1 t2 -> Q r t1 r t2) -> ..
     rwp_flow_go F single start f acc lb tb ws  SR s1 s2 ->
                                   (forall r t1 t2, SR t1 t2 -> 1 <= bl2 t2 -> Q r t1 r t2) -> ..
       ([flow_go] of ScanLoops.v is the main loop of scan_flow_scalar, a local [fix] in the model.) *)
From Coq Require Import List NArith ZArith Bool Arith Lia.
Import ListNotations.
Require Import Parser SBase SPrim SDir SScalar SFetch SBuf InputRefine ScanLoops ScalarKit ScanPair ScanPairPrim.
Local Open Scope nat_scope.
Arguments Nat.ltb : simpl never.
Arguments Nat.leb : simpl never.
Arguments Nat.eqb : simpl never.
Arguments Nat.sub : simpl never.

(* col_lt_indent: a skeleton read, the same value on both sides *)
Definition col_lt_indent_val (s1 : st1) : bool := (Z.of_N (m_col (sc_mark s1)) <? sc_indent s1)%Z.
Section RelFlowGen.
Variable strict : bool.
Variable N0 : nat.
Local Notation rwp := (rwpG strict N0).
Lemma rwp_col_lt_indent (Q : bool -> st1 -> bool -> st2 -> Prop) s1 s2 :
  SR s1 s2 -> Q (col_lt_indent_val s1) s1 (col_lt_indent_val s1) s2 ->
  rwp (@col_lt_indent strin) (@col_lt_indent bufin) Q s1 s2.
Proof.
  intros HS HQ. unfold col_lt_indent.
  apply (rwp_gets_skel strict N0 (fun s : st1 => (Z.of_N (m_col (sc_mark s)) <? sc_indent s)%Z)
                       (fun s : st2 => (Z.of_N (m_col (sc_mark s)) <? sc_indent s)%Z)); [exact HS|rel_eq|exact HQ].
Qed.
End RelFlowGen.

Section RelFlow.
Variable cap : nat.
Hypothesis cap_ge : 8 <= cap.
Variable strict : bool.
Variable N0 : nat.
Local Notation rwp := (rwpG strict N0).
Notation sops := str_ops.
Notation bops := (buf_ops cap).

Ltac case_if := match goal with |- rwpG _ _ (if ?b then _ else _) (if ?b then _ else _) _ _ _ => destruct b end.

(* escapes *)
(* read_hex n i peeks at offsets i .. i+n-1 (all buffered) and does not touch the state *)
Lemma rwp_read_hex n : forall i acc start (Q : N -> st1 -> N -> st2 -> Prop) s1 s2,
  SR s1 s2 -> i + n <= bl2 s2 -> (forall v, Q v s1 v s2) ->
  rwp (read_hex sops n i acc start) (read_hex bops n i acc start) Q s1 s2.
Proof using cap_ge.
  induction n as [|n IH]; intros i acc start Q s1 s2 HS HB HQ; cbn [read_hex].
  - apply rwp_ret. apply HQ.
  - apply rwp_bind. apply (rwp_peekn cap cap_ge); [exact HS|lia|].
    case_if; [apply IH; [exact HS|lia|exact HQ] | apply rwp_fail; reflexivity].
Qed.

(* resolve_escape: '\' and the escape character are buffered; a \x \u \U escape buffers its 2/4/8 digits itself *)
Lemma rwp_resolve_escape start (Q : chr -> st1 -> chr -> st2 -> Prop) s1 s2 :
  SR s1 s2 -> 2 <= bl2 s2 -> (forall r t1 t2, SR t1 t2 -> Q r t1 r t2) ->
  rwp (resolve_escape sops start) (resolve_escape bops start) Q s1 s2.
Proof using cap_ge.
  intros HS HB HQ. unfold resolve_escape. apply rwp_bind. apply (rwp_peekn cap cap_ge); [exact HS|lia|].
  destruct (assocc (rn1 s1 1) escape_table) as [r|].
  - apply rwp_bind. apply (rwp_skip_n_non_blank cap cap_ge); [exact HS|exact HB|]. intros t1 t2 HT _ _.
    apply rwp_ret. apply HQ. exact HT.
  - cbv zeta. pose proof (code_length_le8 (rn1 s1 1)) as Hn. case_if; [apply rwp_fail; reflexivity|].
    apply rwp_bind. apply (rwp_skip_n_non_blank cap cap_ge); [exact HS|exact HB|]. intros u1 u2 HU _ _.
    apply rwp_bind. apply (rwp_look cap cap_ge); [exact HU|lia|]. intros v1 v2 HV _ _ BV _.
    apply rwp_bind. apply rwp_read_hex; [exact HV|lia|]. intros v.
    case_if; [|apply rwp_fail; reflexivity].
    apply rwp_bind. apply (rwp_skip_n_non_blank cap cap_ge); [exact HV|exact BV|]. intros t1 t2 HT _ _.
    apply rwp_ret. apply HQ. exact HT.
Qed.

(* consume_flow_scalar_non_whitespace_chars *)
Lemma rwp_consume_nonws fuel : forall single acc start
  (Q : list chr * bool -> st1 -> list chr * bool -> st2 -> Prop) s1 s2,
  SR s1 s2 -> (forall r t1 t2, SR t1 t2 -> Q r t1 r t2) ->
  rwp (consume_nonws sops fuel single acc start) (consume_nonws bops fuel single acc start) Q s1 s2.
Proof using cap_ge.
  induction fuel as [|fuel IH]; intros single acc start Q s1 s2 HS HQ; [apply rwp_oof_l|]. cbn [consume_nonws].
  apply rwp_bind. apply (rwp_look cap cap_ge); [exact HS|lia|]. intros u1 u2 HU _ _ BU _.
  apply rwp_bind. apply (rwp_peek cap cap_ge); [exact HU|lia|].
  case_if; [apply rwp_ret; apply HQ; exact HU|].
  apply rwp_bind. apply (rwp_peekn cap cap_ge); [exact HU|lia|].
  case_if.
  { (* '' in a single-quoted scalar *)
    apply rwp_bind. apply (rwp_skip_n_non_blank cap cap_ge); [exact HU|exact BU|]. intros v1 v2 HV _ _.
    apply IH; [exact HV|exact HQ]. }
  case_if; [apply rwp_ret; apply HQ; exact HU|].
  case_if; [apply rwp_ret; apply HQ; exact HU|].
  case_if.
  { (* an escaped line break: '\', then CR LF need three buffered characters *)
    apply rwp_bind. apply (rwp_look cap cap_ge); [exact HU|lia|]. intros v1 v2 HV _ _ BV _.
    apply rwp_bind. apply (rwp_skip_non_blank cap cap_ge); [exact HV|lia|]. intros w1 w2 HW _ BW.
    apply rwp_bind. apply (rwp_skip_linebreak cap cap_ge); [exact HW|lia|]. intros x1 x2 HX _ _.
    apply rwp_ret. apply HQ. exact HX. }
  case_if.
  { (* an escape sequence *)
    apply rwp_bind. apply rwp_resolve_escape; [exact HU|exact BU|]. intros r v1 v2 HV.
    apply IH; [exact HV|exact HQ]. }
  apply rwp_bind. apply (rwp_skip_non_blank cap cap_ge); [exact HU|lia|]. intros v1 v2 HV _ _.
  apply IH; [exact HV|exact HQ].
Qed.

(* the blank-consuming loop *)
Lemma rwp_flow_blanks fuel : forall lbl lb tb ws
  (Q : bool * bool * N * list chr -> st1 -> bool * bool * N * list chr -> st2 -> Prop) s1 s2,
  SR s1 s2 -> 1 <= bl2 s2 -> (forall r t1 t2, SR t1 t2 -> Q r t1 r t2) ->
  rwp (flow_blanks sops fuel lbl lb tb ws) (flow_blanks bops fuel lbl lb tb ws) Q s1 s2.
Proof using cap_ge.
  induction fuel as [|fuel IH]; intros lbl lb tb ws Q s1 s2 HS HB HQ; [apply rwp_oof_l|]. cbn [flow_blanks].
  apply rwp_bind. apply (rwp_peek cap cap_ge); [exact HS|exact HB|].
  destruct (is_blank (rn1 s1 0)).
  - destruct lbl.
    + apply rwp_bind. apply rwp_col_lt_indent; [exact HS|].
      case_if; [apply rwp_mark_fail; exact HS|].
      apply rwp_bind. apply (rwp_skip_blank cap cap_ge); [exact HS|exact HB|]. intros u1 u2 HU _ _.
      apply rwp_bind. apply (rwp_look cap cap_ge); [exact HU|lia|]. intros v1 v2 HV _ _ BV _.
      apply IH; [exact HV|exact BV|exact HQ].
    + apply rwp_bind. apply (rwp_skip_blank cap cap_ge); [exact HS|exact HB|]. intros u1 u2 HU _ _.
      apply rwp_bind. apply (rwp_look cap cap_ge); [exact HU|lia|]. intros v1 v2 HV _ _ BV _.
      apply IH; [exact HV|exact BV|exact HQ].
  - destruct (is_break (rn1 s1 0)); [|apply rwp_ret; apply HQ; exact HS].
    apply rwp_bind. apply (rwp_look cap cap_ge); [exact HS|lia|]. intros u1 u2 HU _ _ BU _.
    destruct lbl.
    + apply rwp_bind. apply (rwp_skip_break cap cap_ge); [exact HU|exact BU|]. intros v1 v2 HV _ _ _.
      apply rwp_bind. apply (rwp_look cap cap_ge); [exact HV|lia|]. intros w1 w2 HW _ _ BW _.
      apply IH; [exact HW|exact BW|exact HQ].
    + apply rwp_bind. apply (rwp_skip_break cap cap_ge); [exact HU|exact BU|]. intros v1 v2 HV _ _ _.
      apply rwp_bind. apply (rwp_look cap cap_ge); [exact HV|lia|]. intros w1 w2 HW _ _ BW _.
      apply IH; [exact HW|exact BW|exact HQ].
Qed.

(* the main loop *)
(* at the exit the closing quote has been looked at: one character is buffered *)
Lemma rwp_flow_go F single start f : forall acc lb tb ws
  (Q : list chr -> st1 -> list chr -> st2 -> Prop) s1 s2,
  SR s1 s2 -> (forall r t1 t2, SR t1 t2 -> 1 <= bl2 t2 -> Q r t1 r t2) ->
  rwp (flow_go sops F single start f acc lb tb ws) (flow_go bops F single start f acc lb tb ws) Q s1 s2.
Proof using cap_ge.
  induction f as [|f IH]; intros acc lb tb ws Q s1 s2 HS HQ; [apply rwp_oof_l|]. cbn [flow_go].
  apply rwp_bind. apply (rwp_look cap cap_ge); [exact HS|lia|]. intros u1 u2 HU _ _ BU _.
  apply rwp_bind. apply rwp_get. cbv beta. sr_sync HU.
  apply rwp_bind.
  apply rwp_mono with (Q := Qe (fun _ t1 t2 => t1 = u1 /\ t2 = u2)).
  { destruct (m_col (sc_mark u1) =? 0)%N.
    - apply (rwp_next_is_document_indicator cap cap_ge); [exact HU|exact BU|]. split; [reflexivity|split; reflexivity].
    - apply rwp_ret. split; [reflexivity|split; reflexivity]. }
  intros di t1 di' t2 [<- [-> ->]].
  destruct di; [apply rwp_fail; reflexivity|].
  apply rwp_bind. apply (rwp_next_is cap cap_ge); [exact HU|lia|].
  case_if; [apply rwp_fail; reflexivity|].
  apply rwp_bind. apply rwp_col_lt_indent; [exact HU|].
  case_if; [apply rwp_fail; reflexivity|].
  apply rwp_bind. apply rwp_consume_nonws; [exact HU|]. intros [acc' lbl] v1 v2 HV. cbv beta iota.
  apply rwp_bind. apply (rwp_look_ch cap cap_ge); [exact HV|]. intros w1 w2 HW _ _ BW _.
  case_if; [apply rwp_ret; apply HQ; [exact HW|exact BW]|].
  apply rwp_bind. apply rwp_flow_blanks; [exact HW|exact BW|]. intros [[[lbl' lb'] tb'] ws'] x1 x2 HX. cbv beta iota.
  destruct lbl'; [|apply IH; [exact HX|exact HQ]].
  case_if; [apply IH; [exact HX|exact HQ]|]. case_if; apply IH; [exact HX|exact HQ|exact HX|exact HQ].
Qed.

(* scan_flow_scalar *)
Theorem scan_flow_scalar_ok : rel_scan_flow_scalar cap strict N0.
Proof using cap_ge.
  unfold rel_scan_flow_scalar. intros F single s1 s2 HS HB. rewrite !scan_flow_scalar_eq.
  apply rwp_bind. apply rwp_mark; [exact HS|].
  apply rwp_bind. apply (rwp_skip_non_blank cap cap_ge); [exact HS|exact HB|]. intros u1 u2 HU _ _.
  apply rwp_bind. apply rwp_flow_go; [exact HU|]. intros str v1 v2 HV BV.
  apply rwp_bind. apply (rwp_skip_non_blank cap cap_ge); [exact HV|exact BV|]. intros w1 w2 HW _ _.
  eapply rwp_bind_rpost; [apply (skip_ws_to_eol_ok cap cap_ge); exact HW|]. intros tw x1 x2 HX BX.
  apply rwp_bind. apply (rwp_peek cap cap_ge); [exact HX|exact BX|].
  apply rwp_bind. apply rwp_get. cbv beta zeta. sr_sync HX.
  case_if; [|apply rwp_fail; reflexivity].
  apply rwp_ret_rpost; [exact HX|lia].
Qed.

End RelFlow.

Print Assumptions scan_flow_scalar_ok.
