(* C17, fusion: the lazy pipeline (Model/Lazy.v: the parser pulls tokens from the scanner on demand) delivers exactly
   what the batch pipeline (Model/Pipe.v: all tokens first, then the parser) delivers - events, spans, verdict.

   [Scans F s toks se]: from scanner state [s] the iterator hands out [toks] and then ends with [se] (the fuel-free
   reading of [scan_all]).  Invariant of the fusion: the batch parser is the lazy parser with the tokens the scanner
   will still deliver appended ([ext toks p], Proofs/ScanRelTop.v), and a step of the state machine either asks for a
   token beyond the end of its list or does the same on every extension ([state_machine_ext]). *)
From Coq Require Import List NArith ZArith Bool Arith Lia.
Import ListNotations.
Require Import Parser SBase SPrim SDir SScalar SFetch Pipe PushLoad Lazy ScanRelTop ScanFuelTop ScanFuelAll C02run.
Local Open Scope nat_scope.

Inductive Scans (F : nat) : sc strin -> list token -> scan_end -> Prop :=
| ScEnd s s' : next_token str_ops F s = SBase.Ok (None, s') -> Scans F s [] SEnded
| ScErr s e m : next_token str_ops F s = SBase.Err e m -> Scans F s [] (SError e m)
| ScPanic s n : next_token str_ops F s = SBase.Panic n -> Scans F s [] (SPanic n)
| ScTok s t s' toks se : next_token str_ops F s = SBase.Ok (Some t, s') -> Scans F s' toks se -> Scans F s (t :: toks) se.

Lemma scan_all_Scans F : forall n s acc l se,
  scan_all str_ops F n s acc = (l, se) -> se <> SFuel -> exists toks, l = rev acc ++ toks /\ Scans F s toks se.
Proof.
  induction n as [|n IH]; intros s acc l se E NF; cbn [scan_all] in E.
  - inversion E; subst. congruence.
  - destruct (next_token str_ops F s) as [[[t|] s']|e m|k|] eqn:EN.
    + destruct (IH _ _ _ _ E NF) as (toks & -> & HS). exists (t :: toks). split.
      * cbn [rev]. rewrite <- app_assoc. reflexivity.
      * eapply ScTok; eauto.
    + inversion E; subst. exists []. rewrite app_nil_r. split; [reflexivity|]. eapply ScEnd; eauto.
    + inversion E; subst. exists []. rewrite app_nil_r. split; [reflexivity|]. eapply ScErr; eauto.
    + inversion E; subst. exists []. rewrite app_nil_r. split; [reflexivity|]. eapply ScPanic; eauto.
    + inversion E; subst. congruence.
Qed.

Lemma ext_nil p : ext [] p = p.
Proof. destruct p. unfold ext, set_tok. cbn. rewrite app_nil_r. reflexivity. Qed.
Lemma ext_feed t toks p : ext toks (feed t p) = ext (t :: toks) p.
Proof. unfold ext, feed, set_tok. cbn. rewrite <- app_assoc. reflexivity. Qed.
Lemma ext_ext x y p : ext y (ext x p) = ext (x ++ y) p.
Proof. unfold ext, set_tok. cbn. rewrite <- app_assoc. reflexivity. Qed.

Lemma scan_next_token_tok F s t s' : next_token str_ops F s = SBase.Ok (Some t, s') -> scan_next_token F s = inl (t, s').
Proof. unfold scan_next_token. intros ->. reflexivity. Qed.

Lemma lazy_sm_0 F s p :
  lazy_sm 0 F s p =
  match state_machine p with
  | Parser.Ok (ev, p') => inl (ev, {| lz_sc := s; lz_p := p' |})
  | Parser.Err PErrScan => inr PFuel
  | Parser.Err (PErr site m) => inr (PParseErr site m)
  | Parser.Panic n => inr (PPanic n)
  end.
Proof. reflexivity. Qed.

Lemma lazy_sm_S k F s p :
  lazy_sm (S k) F s p =
  match state_machine p with
  | Parser.Ok (ev, p') => inl (ev, {| lz_sc := s; lz_p := p' |})
  | Parser.Err PErrScan => match scan_next_token F s with
                           | inl (t, s') => lazy_sm k F s' (feed t p)
                           | inr e => inr e
                           end
  | Parser.Err (PErr site m) => inr (PParseErr site m)
  | Parser.Panic n => inr (PPanic n)
  end.
Proof. reflexivity. Qed.

(* one step *)
Definition fuse_post F (se : scan_end) (n : nat) (r : ((event * span) * parser) + pend) (l : ((event * span) * lz) + pend) : Prop :=
  match r with
  | inl (ev, q) => exists s' p' toks', l = inl (ev, {| lz_sc := s'; lz_p := p' |}) /\ q = ext toks' p'
                                       /\ Scans F s' toks' se /\ length toks' <= n
  | inr v => l = inr v
  end.

Lemma fuse_local F se s toks p k :
  Scans F s toks se -> state_machine p <> Parser.Err PErrScan ->
  fuse_post F se (length toks) (run_step se (ext toks p)) (lazy_sm (S k) F s p).
Proof.
  intros HS NE. rewrite lazy_sm_S. unfold run_step. pose proof (state_machine_ext toks p) as HX.
  destruct (state_machine p) as [[ev q]|[|a m]|n]; cbn [rsimG] in HX; [|congruence| |]; rewrite HX; cbn [fuse_post pe fst snd].
  - exists s, q, toks. repeat split; auto.
  - reflexivity.
  - reflexivity.
Qed.

Lemma perrscan_dec {T} (r : res T) : r <> Parser.Err PErrScan \/ r = Parser.Err PErrScan.
Proof. destruct r as [v|[|a m]|n]; [left; discriminate|right; reflexivity|left; discriminate|left; discriminate]. Qed.

Lemma lazy_sm_fuse F s toks se : Scans F s toks se -> forall k p, length toks < k ->
  fuse_post F se (length toks) (run_step se (ext toks p)) (lazy_sm k F s p).
Proof.
  induction 1 as [s s' E|s e m E|s n E|s t s' toks se E HS IH]; intros k p HK; (destruct k as [|k]; [cbn [length] in HK; lia|]);
    (destruct (perrscan_dec (state_machine p)) as [NE|ESM]; [apply fuse_local; [econstructor; eauto|exact NE]|]).
  1-3: unfold run_step; rewrite ext_nil, lazy_sm_S, ESM; unfold scan_next_token; rewrite E; reflexivity.
  rewrite lazy_sm_S, ESM, (scan_next_token_tok _ _ _ _ E). rewrite <- ext_feed.
  cbn [length] in HK. specialize (IH k (feed t p) ltac:(lia)).
  destruct (run_step se (ext toks (feed t p))) as [[ev q]|v]; cbn [fuse_post] in *; auto.
  destruct IH as (s2 & p2 & toks2 & A & B & C & D). exists s2, p2, toks2. repeat split; auto. cbn [length]. lia.
Qed.

(* whole runs *)
Lemma lazy_run_iter k F : forall fuel z acc,
  lazy_run fuel k F z acc = iter (fun z => at_end (lz_p z)) (lazy_step k F) fuel z acc.
Proof.
  induction fuel as [|fuel IH]; intros z acc; [reflexivity|].
  cbn [lazy_run iter]. rewrite if_at_end. destruct (at_end (lz_p z)); [reflexivity|].
  destruct (lazy_step k F z) as [[ev z']|e]; [apply IH|reflexivity].
Qed.

Lemma lazy_run_fuse F se fuel k toks s p acc : Scans F s toks se -> length toks < k ->
  lazy_run fuel k F {| lz_sc := s; lz_p := p |} acc = parse_all fuel (ext toks p) se acc.
Proof.
  rewrite lazy_run_iter, parse_all_iter. revert toks s p acc.
  induction fuel as [|fuel IH]; intros toks s p acc HS HK; [reflexivity|].
  cbn [iter lz_p]. change (at_end (ext toks p)) with (at_end p). destruct (at_end p); [reflexivity|].
  pose proof (lazy_sm_fuse F s toks se HS k p HK) as HF. unfold lazy_step. cbn [lz_sc lz_p].
  destruct (run_step se (ext toks p)) as [[ev q]|v]; cbn [fuse_post] in HF.
  - destruct HF as (s2 & p2 & toks2 & -> & -> & C & D). apply IH; [exact C|lia].
  - rewrite HF. reflexivity.
Qed.

(* the tokens of a whole text *)
Lemma scans_of_text orig :
  let F := 2 * length orig + 10 in
  exists toks se, scan_all str_ops F (4 * F + 20) (init_sc {| si_chars := orig; si_look := 0 |}) [] = (toks, se)
                  /\ Scans F (init_sc {| si_chars := orig; si_look := 0 |}) toks se /\ length toks <= 4 * F + 20.
Proof.
  intros F. pose proof (scanner_never_out_of_fuel orig) as NF. cbv zeta in NF. fold F in NF.
  pose proof (scan_all_length str_ops F (4 * F + 20) (init_sc {| si_chars := orig; si_look := 0 |}) []) as HL.
  destruct (scan_all str_ops F (4 * F + 20) _ []) as [toks se] eqn:E. cbn [fst snd length] in *.
  destruct (scan_all_Scans F _ _ _ _ _ E NF) as (toks' & EQ & HS). cbn [rev app] in EQ. subst toks'.
  exists toks, se. repeat split; auto. lia.
Qed.

Theorem lazy_is_batch : forall text : list N, lazy_run_str text = run_str text.
Proof.
  intros text. unfold lazy_run_str, run_str, lazy_F, lazy_K, lz_init. cbv zeta.
  destruct (scans_of_text text) as (toks & se & E & HS & HL). cbv zeta in E, HS, HL. unfold chr in *. rewrite E.
  rewrite (lazy_run_fuse _ se _ _ toks _ _ _ HS); [reflexivity|unfold lazy_F; lia].
Qed.
