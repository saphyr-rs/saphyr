(* Joint proof "every position the scanner reports is a true position" (see SCANPOS.md): the QUOTED (flow) SCALAR
   family of Model/SScalar.v - read_hex, resolve_escape, consume_nonws, flow_blanks, the main loop of
   scan_flow_scalar and scan_flow_scalar itself.  Every skip is justified by the character(s) just peeked:
   - the opening quote: the contract's precondition; the closing quote: the loop exits only on the quote;
   - consume_nonws: ordinary characters are checked [negb (is_blank_or_breakz c)], [''] is two quotes, the
     backslash of an escape is a backslash, the escape character is a key of the generated [escape_table] or one
     of x/u/U (all of them neither a break nor NUL: finite check over the concrete tables), the hex digits are
     checked by [is_hex], the escaped line break goes through [skip_linebreak];
   - flow_blanks: [skip_blank] after [is_blank c], [skip_break] after [is_break c];
   - errors are raised at [start] (a true mark: captured under the invariant) or at the current mark.
   The walks follow the position invariant; the contract's [pkeeps] part is [ScanFrame.Fr_scan_flow_scalar]. *)
From Coq Require Import List NArith ZArith Bool Arith Lia.
Import ListNotations.
Require Import Parser SBase SPrim SDir SScalar SFetch Positions ScanLoops ScanPos ScanPosPrim.
Local Open Scope nat_scope.

Arguments Nat.ltb : simpl never.
Arguments Nat.leb : simpl never.
Arguments Nat.eqb : simpl never.
Arguments Nat.sub : simpl never.

(* the escape tables: every key is a real, non-break character *)
Lemma assocc_key (P : chr -> bool) (l : list (chr * chr)) :
  forallb (fun p => P (fst p)) l = true -> forall k r, assocc k l = Some r -> P k = true.
Proof.
  induction l as [|[a b] l IH]; intros H k r; cbn [assocc]; [discriminate|].
  cbn [forallb fst] in H. apply andb_true_iff in H as [Ha Hl].
  destruct (N.eqb_spec a k) as [<-|_]; [intros _; exact Ha|apply IH; exact Hl].
Qed.
Lemma assocn_key (P : chr -> bool) (l : list (chr * nat)) :
  forallb (fun p => P (fst p)) l = true -> forall k, assocn k l <> O -> P k = true.
Proof.
  induction l as [|[a b] l IH]; intros H k; cbn [assocn]; [congruence|].
  cbn [forallb fst] in H. apply andb_true_iff in H as [Ha Hl].
  destruct (N.eqb_spec a k) as [<-|_]; [intros _; exact Ha|apply IH; exact Hl].
Qed.

(* the bridging facts about the generated tables (Gen/Escapes.v): checked by computation over the concrete tables *)
Lemma escape_table_keys_ok : forallb (fun p => negb (is_breakz (fst p))) escape_table = true.
Proof. vm_compute. reflexivity. Qed.
Lemma code_length_table_keys_ok : forallb (fun p => negb (is_breakz (fst p))) code_length_table = true.
Proof. vm_compute. reflexivity. Qed.

Lemma escape_key_not_breakz e r : assocc e escape_table = Some r -> is_breakz e = false.
Proof.
  intros H. apply negb_true_iff.
  exact (assocc_key (fun c => negb (is_breakz c)) escape_table escape_table_keys_ok e r H).
Qed.
Lemma code_length_key_not_breakz e : Nat.eqb (code_length e) 0 = false -> is_breakz e = false.
Proof.
  intros H. apply Nat.eqb_neq in H. apply negb_true_iff.
  exact (assocn_key (fun c => negb (is_breakz c)) code_length_table code_length_table_keys_ok e H).
Qed.

Lemma quote_not_breakz (single : bool) c :
  (single && (c =? 39)%N) || (negb single && (c =? 34)%N) = true -> is_breakz c = false.
Proof.
  intros H. apply orb_true_iff in H as [H|H]; apply andb_true_iff in H as [_ H]; apply N.eqb_eq in H; subst c; reflexivity.
Qed.

Section PosFlow.
Variable orig : list chr.
Hypothesis no_nul : Forall (fun c => c <> 0%N) orig.
Notation pwp := (swp (true_mark orig)).
Notation MarkAt := (ScanPos.MarkAt orig).
Notation MarkOK := (ScanPos.MarkOK orig).

(* escapes *)
(* read_hex n i peeks at offsets i .. i+n-1, does not touch the state, and succeeds only if all of them are hex
   digits; its only error is raised at [start] *)
Lemma pwp_read_hex start n : forall i acc (Q : N -> sst -> Prop) s,
  true_mark orig start ->
  ((forall j, i <= j < i + n -> is_hex (rnth s j) = true) -> forall v, Q v s) ->
  pwp (read_hex str_ops n i acc start) Q s.
Proof using no_nul.
  induction n as [|n IH]; intros i acc Q s Hst HQ; cbn [read_hex].
  - apply swp_ret. apply HQ. intros j Hj. lia.
  - apply swp_bind. apply swp_peekn. cbv beta.
    destruct (is_hex (rnth s i)) eqn:Eh; [|apply swp_fail; exact Hst].
    apply IH; [exact Hst|]. intros Hj v. apply HQ. intros j Hj'.
    destruct (Nat.eq_dec j i) as [->|Hne]; [exact Eh|apply Hj; lia].
Qed.

(* resolve_escape is called with a backslash at offset 0 (all that matters: a real, non-break character) *)
Lemma pwp_resolve_escape start pre (Q : chr -> sst -> Prop) s :
  true_mark orig start -> MarkAt pre s -> is_breakz (rnth s 0) = false ->
  (forall r s', MarkOK s' -> Q r s') -> pwp (resolve_escape str_ops start) Q s.
Proof using no_nul.
  intros Hst HM Z0 HQ. unfold resolve_escape. apply swp_bind. apply swp_peekn. cbv beta.
  destruct (assocc (rnth s 1) escape_table) as [r|] eqn:Ea.
  - apply swp_bind. apply (pwp_skip_n_non_blank_z orig no_nul 2 pre); [exact HM| |].
    + intros i Hi. destruct i as [|[|i]]; [exact Z0|exact (escape_key_not_breakz _ _ Ea)|lia].
    + intros s1 M1 R1 _. apply swp_ret. apply HQ; eexists; exact M1.
  - cbv zeta. destruct (Nat.eqb (code_length (rnth s 1)) 0) eqn:En; [apply swp_fail; exact Hst|].
    apply swp_bind. apply (pwp_skip_n_non_blank_z orig no_nul 2 pre); [exact HM| |].
    + intros i Hi. destruct i as [|[|i]]; [exact Z0|exact (code_length_key_not_breakz _ En)|lia].
    + intros s1 M1 R1 _.
      apply swp_bind. apply (pwp_look orig no_nul _ _ _ _ M1). intros s2 M2 R2 I2.
      apply swp_bind. apply pwp_read_hex; [exact Hst|]. intros Hhex v.
      destruct (is_scalar_value v); [|apply swp_fail; exact Hst].
      apply swp_bind. apply (pwp_skip_n_non_blank_z orig no_nul _ _ _ _ M2).
      * intros i Hi. apply hex_not_breakz. apply Hhex. lia.
      * intros s3 M3 R3 _. apply swp_ret. apply HQ; eexists; exact M3.
Qed.

(* consume_flow_scalar_non_whitespace_chars *)
Lemma pwp_consume_nonws start fuel : forall single acc (Q : list chr * bool -> sst -> Prop) s,
  true_mark orig start -> MarkOK s ->
  (forall r s', MarkOK s' -> Q r s') -> pwp (consume_nonws str_ops fuel single acc start) Q s.
Proof using no_nul.
  induction fuel as [|fuel IH]; intros single acc Q s Hst [pre HM] HQ; cbn [consume_nonws]; [exact I|].
  apply swp_bind. apply (pwp_look orig no_nul 2 pre); [exact HM|]. intros s1 M1 R1 I1.
  apply swp_bind. apply swp_peek. cbv beta.
  destruct (is_blank_or_breakz (rnth s1 0)) eqn:Ebb; [apply swp_ret; apply HQ; exists pre; exact M1|].
  assert (Z0 : is_breakz (rnth s1 0) = false).
  { unfold is_blank_or_breakz in Ebb. apply orb_false_iff in Ebb. apply Ebb. }
  apply swp_bind. apply swp_peekn. cbv beta.
  difE E1.
  { (* '' *)
    apply andb_true_iff in E1 as [E1 _]. apply andb_true_iff in E1 as [_ E1]. apply N.eqb_eq in E1.
    apply swp_bind. apply (pwp_skip_n_non_blank_z orig no_nul 2 pre); [exact M1| |].
    - intros i Hi. destruct i as [|[|i]]; [exact Z0|rewrite E1; reflexivity|lia].
    - intros s2 M2 R2 _. apply IH; [exact Hst|eexists; exact M2|exact HQ]. }
  difE E2; [apply swp_ret; apply HQ; exists pre; exact M1|].
  difE E3; [apply swp_ret; apply HQ; exists pre; exact M1|].
  difE E4.
  { (* escaped line break *)
    apply swp_bind. apply (pwp_look orig no_nul 3 pre); [exact M1|]. intros s2 M2 R2 I2.
    apply swp_bind. apply (pwp_skip_plain_z orig no_nul (skip_non_blank str_ops) pre); [right; reflexivity|exact M2| |].
    - rewrite (rnth_eq s1 s2 0 R2). exact Z0.
    - intros s3 M3 R3 _.
      apply swp_bind. apply (pwp_skip_linebreak orig no_nul _ _ _ M3).
      + intros _. apply swp_ret. apply HQ; eexists; exact M3.
      + intros s4 b rest Rb Ub Hb M4 R4 _. apply swp_ret. apply HQ; eexists; exact M4. }
  difE E5.
  { (* escape sequence *)
    apply swp_bind. apply (pwp_resolve_escape start pre); [exact Hst|exact M1|exact Z0|].
    intros r s2 MOK2. apply IH; [exact Hst|exact MOK2|exact HQ]. }
  (* ordinary character *)
  apply swp_bind. apply (pwp_skip_plain_z orig no_nul (skip_non_blank str_ops) pre); [right; reflexivity|exact M1|exact Z0|].
  intros s2 M2 R2 _. apply IH; [exact Hst|eexists; exact M2|exact HQ].
Qed.

(* the blank-consuming loop *)
Lemma pwp_flow_blanks fuel : forall lbl lb tb ws (Q : bool * bool * N * list chr -> sst -> Prop) s,
  MarkOK s -> (forall r s', MarkOK s' -> Q r s') -> pwp (flow_blanks str_ops fuel lbl lb tb ws) Q s.
Proof using no_nul.
  induction fuel as [|fuel IH]; intros lbl lb tb ws Q s [pre HM] HQ; cbn [flow_blanks]; [exact I|].
  apply swp_bind. apply swp_peek. cbv beta.
  destruct (is_blank (rnth s 0)) eqn:Ebl.
  - assert (Z0 : is_breakz (rnth s 0) = false) by (apply blank_not_breakz; exact Ebl).
    destruct lbl.
    + apply swp_bind. unfold col_lt_indent. apply swp_gets. cbv beta.
      difE Et.
      { apply swp_bind. unfold mark. apply swp_gets. apply swp_fail. apply markok_true. exists pre. exact HM. }
      apply swp_bind. apply (pwp_skip_plain_z orig no_nul (skip_blank str_ops) pre); [left; reflexivity|exact HM|exact Z0|].
      intros s1 M1 R1 _.
      apply swp_bind. apply (pwp_look orig no_nul _ _ _ _ M1). intros s2 M2 R2 I2.
      apply IH; [eexists; exact M2|exact HQ].
    + apply swp_bind. apply (pwp_skip_plain_z orig no_nul (skip_blank str_ops) pre); [left; reflexivity|exact HM|exact Z0|].
      intros s1 M1 R1 _.
      apply swp_bind. apply (pwp_look orig no_nul _ _ _ _ M1). intros s2 M2 R2 I2.
      apply IH; [eexists; exact M2|exact HQ].
  - destruct (is_break (rnth s 0)) eqn:Eb; [|apply swp_ret; apply HQ; exists pre; exact HM].
    apply swp_bind. apply (pwp_look orig no_nul 2 pre); [exact HM|]. intros s1 M1 R1 I1.
    assert (Eb1 : is_break (rnth s1 0) = true) by (rewrite (rnth_eq s s1 0 R1); exact Eb).
    destruct lbl.
    + apply swp_bind. apply (pwp_skip_break orig pre); [exact M1|exact Eb1|].
      intros s2 b rest Rb Ub Hb M2 R2 _.
      apply swp_bind. apply (pwp_look orig no_nul _ _ _ _ M2). intros s3 M3 R3 I3.
      apply IH; [eexists; exact M3|exact HQ].
    + apply swp_bind. apply (pwp_skip_break orig pre); [exact M1|exact Eb1|].
      intros s2 b rest Rb Ub Hb M2 R2 _.
      apply swp_bind. apply (pwp_look orig no_nul _ _ _ _ M2). intros s3 M3 R3 I3.
      apply IH; [eexists; exact M3|exact HQ].
Qed.

(* the main loop: it exits only with the closing quote as the next character *)
Lemma pwp_flow_go F single start f : forall acc lb tb ws (Q : list chr -> sst -> Prop) s,
  true_mark orig start -> MarkOK s ->
  (forall r s', MarkOK s' -> is_breakz (rnth s' 0) = false -> Q r s') ->
  pwp (flow_go str_ops F single start f acc lb tb ws) Q s.
Proof using no_nul.
  induction f as [|f IH]; intros acc lb tb ws Q s Hst [pre HM] HQ; cbn [flow_go]; [exact I|].
  apply swp_bind. apply (pwp_look orig no_nul 4 pre); [exact HM|]. intros s1 M1 R1 I1.
  apply swp_bind. apply swp_get.
  apply swp_bind.
  apply swp_mono with (Q := fun (_ : bool) s' => s' = s1).
  { dif;
      [apply swp_next_is_document_indicator; reflexivity|apply swp_ret; reflexivity]. }
  intros di s1' ->.
  destruct di; [apply swp_fail; exact Hst|].
  apply swp_bind. unfold next_is. apply swp_bind. apply swp_peek. apply swp_ret.
  destruct (is_z (rnth s1 0)); [apply swp_fail; exact Hst|].
  apply swp_bind. unfold col_lt_indent. apply swp_gets. cbv beta.
  dif; [apply swp_fail; exact Hst|].
  apply swp_bind. apply pwp_consume_nonws; [exact Hst|exists pre; exact M1|].
  intros [acc' lbl] s2 [pre2 M2]. cbv beta iota.
  apply swp_bind. apply (pwp_look_ch orig no_nul pre2); [exact M2|]. intros s3 M3 R3 I3.
  difE Equ.
  { apply swp_ret. apply HQ; [exists pre2; exact M3|exact (quote_not_breakz _ _ Equ)]. }
  apply swp_bind. apply pwp_flow_blanks; [exists pre2; exact M3|].
  intros [[[lbl' lb'] tb'] ws'] s4 MOK4. cbv beta iota.
  destruct lbl'; [|apply IH; [exact Hst|exact MOK4|exact HQ]].
  dif; [apply IH; [exact Hst|exact MOK4|exact HQ]|].
  dif; apply IH; [exact Hst|exact MOK4|exact HQ|exact Hst|exact MOK4|exact HQ].
Qed.

(* scan_flow_scalar *)
Theorem pos_scan_flow_scalar : forall F single s,
  MarkOK s -> is_breakz (rnth s 0) = false -> pwp (scan_flow_scalar str_ops F single) (ppost orig s) s.
Proof using no_nul.
  intros F single s [pre HM] Hz. apply (pwp_ppost orig); [apply ScanFrame.Fr_scan_flow_scalar|]. rewrite scan_flow_scalar_eq.
  assert (Hst : true_mark orig (sc_mark s)) by (apply markok_true; exists pre; exact HM).
  apply swp_bind. unfold mark. apply swp_gets.
  (* the opening quote *)
  apply swp_bind. apply (pwp_skip_plain_z orig no_nul (skip_non_blank str_ops) pre); [right; reflexivity|exact HM|exact Hz|].
  intros s1 M1 R1 _.
  apply swp_bind. apply pwp_flow_go; [exact Hst|eexists; exact M1|]. intros str s2 [pre2 M2] Z2.
  (* the closing quote *)
  apply swp_bind. apply (pwp_skip_plain_z orig no_nul (skip_non_blank str_ops) pre2); [right; reflexivity|exact M2|exact Z2|].
  intros s3 M3 R3 _.
  apply swp_bind. eapply swp_mono; [apply (pos_skip_ws_to_eol orig no_nul); eexists; exact M3|].
  intros tw s4 [MOK4 _].
  apply swp_bind. apply swp_peek. apply swp_bind. apply swp_get. cbv zeta.
  dif.
  - apply swp_ret. split; [exact MOK4|].
    unfold true_tok, true_span. cbn [fst sp_start sp_end]. split; [exact Hst|apply markok_true; exact MOK4].
  - apply swp_fail. apply markok_true. exact MOK4.
Qed.

End PosFlow.

Print Assumptions pos_scan_flow_scalar.
