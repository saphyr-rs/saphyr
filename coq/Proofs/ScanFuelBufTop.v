(* C01, bounded work over the BUFFERED input - assembly of the fuel-transfer proof (ScanFuelBuf.v): the strict
   reading ([strict = true]) of the walk of ScanPair*.v.

   From related states, with the string side's remaining text within the bound N0 and [2 * N0 + 6 <= F], the token
   iterators [scan_all] over the string input and over the buffered input (any capacity >= 8, the SAME fuels) return
   the same token list and the same end, UNLESS the string run ends in [SFuel] / [SPanic] or the buffered run in
   [SPanic].  In particular the buffered run cannot end in [SFuel] where the string run ends properly.
   The six character-level contracts (directive, tag, anchor, flow / plain / block scalar) are premises. *)
From Coq Require Import List NArith ZArith Bool Arith Lia.
Import ListNotations.
Require Import Parser SBase SPrim SDir SScalar SFetch SBuf Pipe InputRefine ScanPair ScanPairFetch.
Local Open Scope nat_scope.

(* the initial states are related *)
Lemma SR_init orig :
  SR (init_sc {| si_chars := orig; si_look := 0 |}) (init_sc {| b_buf := []; b_rest := orig |}).
Proof.
  split; [|reflexivity]. exists 0. cbn [init_sc sc_in b_buf b_rest si_chars repeat app].
  rewrite app_nil_r. split; [reflexivity|lia].
Qed.

Section FuelBufTop.
Variable cap : nat.
Hypothesis cap_ge : 8 <= cap.
Variable N0 : nat.
Notation sops := str_ops.
Notation bops := (buf_ops cap).

Hypothesis H_dir : rel_scan_directive cap true N0.
Hypothesis H_tag : rel_scan_tag cap true N0.
Hypothesis H_anchor : rel_scan_anchor cap true N0.
Hypothesis H_flow : rel_scan_flow_scalar cap true N0.
Hypothesis H_plain : rel_scan_plain_scalar cap true N0.
Hypothesis H_block : rel_scan_block_scalar cap true N0.

Let NT := rwp_next_token cap cap_ge true N0 H_dir H_tag H_anchor H_flow H_plain H_block.

(* how the two iterators end, from related states *)
Definition scan_transfer (r1 r2 : list token * scan_end) : Prop :=
  r1 = r2 \/ snd r1 = SFuel \/ (exists n, snd r1 = SPanic n) \/ (exists n, snd r2 = SPanic n).

Theorem scan_all_transfer F : 2 * N0 + 6 <= F -> forall N s1 s2 acc, SR s1 s2 -> length (rem1 s1) <= N0 ->
  scan_transfer (scan_all sops F N s1 acc) (scan_all bops F N s2 acc).
Proof using cap_ge H_dir H_tag H_anchor H_flow H_plain H_block.
  intros HF. induction N as [|N IH]; intros s1 s2 acc HS B; [left; reflexivity|].
  pose proof (rwp_elim true _ _ _ _ _ _ (NT F s1 s2 (fun _ => HF) HS) B) as H.
  cbn [scan_all]. revert H.
  destruct (next_token sops F s1) as [[[t1|] u1]|e1 k1|n1|];
    destruct (next_token bops F s2) as [[[t2|] u2]|e2 k2|n2|]; intros H;
    try contradiction;
    try (right; left; reflexivity);
    try (right; right; left; eexists; reflexivity);
    try (right; right; right; eexists; reflexivity).
  - destruct H as [Bu [E HU]]. inversion E; subst t2. apply IH; [exact HU|exact Bu].
  - destruct H as [_ [E _]]. discriminate E.
  - destruct H as [_ [E _]]. discriminate E.
  - left. reflexivity.
  - destruct H as [-> ->]. left. reflexivity.
Qed.

End FuelBufTop.

Print Assumptions scan_all_transfer.
