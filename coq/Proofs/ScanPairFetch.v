(* The scanner over the buffered input against the scanner over the string input, in the calculus of ScanPair.v
   ([rwp] is [rwpG strict N0]): the token-level skeleton of Model/SFetch.v.

   Every fetch_* function, the dispatcher fetch_next_token, fetch_more_tokens and next_token, run over the string
   input and over the buffered input (any capacity >= 8) from related states, are related again: same value, related
   states ([srpost]), or the same error at the same marker.  The skeleton is in lockstep: the same fuel [F] on both
   sides.  The six character-level contracts (directive, tag, anchor, flow / plain / block scalar) are hypotheses of
   the section; the four contracts of the primitives come from ScanPairPrim.v.

   The buffered-length premises ([k <= bl2 s2]) are exactly the facts the dispatcher establishes with its
   [look 1] / [look 4] before each fetch_*:  a function that starts by consuming its indicator ([skip_non_blank],
   [skip_n_non_blank 3]) needs that many characters buffered - on an empty buffer the buffered side's skip would be a
   silent no-op and the two sides would part. *)
From Coq Require Import List NArith ZArith Bool Arith Lia.
Import ListNotations.
Require Import Parser SBase SPrim SDir SScalar SFetch SBuf InputRefine Dispatch DispatchTie ScanPair ScanPairPrim.
Local Open Scope nat_scope.
Arguments Nat.ltb : simpl never.
Arguments Nat.leb : simpl never.
Arguments Nat.eqb : simpl never.
Arguments Nat.sub : simpl never.

(* the postcondition of every token-level function: equal values, related states *)
Definition srpost {A} : A -> st1 -> A -> st2 -> Prop := Qe (fun _ t1 t2 => SR t1 t2).

Lemma srpost_intro {A} (a : A) t1 t2 : SR t1 t2 -> srpost a t1 a t2.
Proof. intros H. split; [reflexivity|exact H]. Qed.

Lemma rpost_intro {A} k (a : A) t1 t2 : SR t1 t2 -> k <= bl2 t2 -> rpost k a t1 a t2.
Proof. intros H B. split; [reflexivity|]. split; assumption. Qed.

(* calling a function whose postcondition is [srpost] *)
Section RelFetchGen.
Variable strict : bool.
Variable N0 : nat.
Local Notation rwp := (rwpG strict N0).
Lemma rwp_bind_srpost {A B1 B2} (m1 : M1 A) (m2 : M2 A) (f1 : A -> M1 B1) (f2 : A -> M2 B2)
  (Q : B1 -> st1 -> B2 -> st2 -> Prop) s1 s2 :
  rwp m1 m2 srpost s1 s2 ->
  (forall a t1 t2, SR t1 t2 -> rwp (f1 a) (f2 a) Q t1 t2) ->
  rwp (bind m1 f1) (bind m2 f2) Q s1 s2.
Proof.
  intros H HK. apply rwp_bind_e. eapply rwp_mono; [exact H|].
  intros a1 t1 a2 t2 [E HS]. split; [exact E|]. apply HK; assumption.
Qed.
Lemma rwp_rpost_srpost {A} k (m1 : M1 A) (m2 : M2 A) s1 s2 : rwp m1 m2 (rpost k) s1 s2 -> rwp m1 m2 srpost s1 s2.
Proof. intros H. eapply rwp_mono; [exact H|]. intros a1 t1 a2 t2 [E [HS _]]. split; assumption. Qed.
End RelFetchGen.
(* the side condition [length (rem1 (f s1)) <= length (rem1 s1)] of [rwp_put] / [rwp_modify] for an update [f] of
   the skeleton, which leaves the text alone: [le_n], once the tests inside [f] are decided *)
Ltac rem_le :=
  first [ apply le_n
        | repeat (match goal with
                  | |- context [if ?b then _ else _] => destruct b
                  | |- context [match ?x with _ => _ end] => destruct x
                  end); apply le_n ].
(* [sk lem]: one skeleton-only step  m ;;; rest  with the rule [lem : SR s1 s2 -> skel_post -> rwp m m Q s1 s2] *)
Ltac sk lem := apply rwp_bind; apply lem; [eassumption | intros ? ? ? ? ?].
(* close a goal [srpost tt t1 tt t2] / [rpost k tt t1 tt t2] *)
Ltac fin := first [ apply srpost_intro; assumption | apply rpost_intro; [assumption|lia] ].
(* the same boolean test on both sides (syntactically) *)
Ltac same_if := match goal with |- rwpG _ _ (if ?b then _ else _) (if ?b then _ else _) _ _ _ => destruct b end.

Section RelFetch.
Variable cap : nat.
Hypothesis cap_ge : 8 <= cap.
Variable strict : bool.
Variable N0 : nat.
Local Notation rwp := (rwpG strict N0).
Notation sops := str_ops.
Notation bops := (buf_ops cap).

Hypothesis H_dir : rel_scan_directive cap strict N0.
Hypothesis H_tag : rel_scan_tag cap strict N0.
Hypothesis H_anchor : rel_scan_anchor cap strict N0.
Hypothesis H_flow : rel_scan_flow_scalar cap strict N0.
Hypothesis H_plain : rel_scan_plain_scalar cap strict N0.
Hypothesis H_block : rel_scan_block_scalar cap strict N0.

Let H_ws := skip_ws_to_eol_ok cap cap_ge.
Let H_next := skip_to_next_token_ok cap cap_ge.
Let H_yws := skip_yaml_whitespace_ok cap cap_ge.

(* stream start / end *)
Lemma rwp_fetch_stream_start s1 s2 : SR s1 s2 -> rwp fetch_stream_start fetch_stream_start srpost s1 s2.
Proof.
  intros HS. unfold fetch_stream_start. apply rwp_bind. apply rwp_get. cbv beta zeta.
  apply rwp_put; [rem_le|]. apply srpost_intro. rel_skel.
Qed.

Lemma rwp_fetch_stream_end s1 s2 : SR s1 s2 -> rwp fetch_stream_end fetch_stream_end srpost s1 s2.
Proof.
  intros HS. unfold fetch_stream_end.
  apply rwp_bind. apply rwp_modify; [rem_le|]. cbv beta.
  match goal with |- rwp _ _ _ ?a ?b => assert (HU : SR a b) end.
  { sr_sync HS. destruct (m_col (sc_mark s1) =? 0)%N; rel_skel. }
  match goal with |- rwp _ _ _ ?a ?b => generalize dependent a; generalize dependent b end.
  intros u2 u1 HU.
  apply rwp_bind. apply rwp_get. cbv beta.
  rel_if; [apply rwp_fail_sr; exact HU|].
  apply rwp_bind. apply rwp_put_skel; [rel_skel|reflexivity|reflexivity|]. intros ? ? ? ? ?.
  sk rwp_unroll_indent. sk rwp_remove_simple_key. sk rwp_disallow_simple_key.
  apply rwp_bind. apply rwp_mark; [eassumption|].
  apply rwp_push_tok; [eassumption|reflexivity|]. intros. fin.
Qed.

(* the entry points of the character-level scanners *)
Lemma rwp_fetch_directive F s1 s2 : SR s1 s2 -> 1 <= bl2 s2 ->
  rwp (fetch_directive sops F) (fetch_directive bops F) srpost s1 s2.
Proof.
  intros HS HB. unfold fetch_directive.
  sk rwp_unroll_indent. sk rwp_remove_simple_key. sk rwp_disallow_simple_key.
  eapply rwp_bind_rpost; [apply H_dir; [eassumption|lia]|]. intros t u1 u2 HU _.
  apply rwp_push_tok; [exact HU|reflexivity|]. intros. fin.
Qed.

Lemma rwp_fetch_tag F s1 s2 : SR s1 s2 ->
  rwp (fetch_tag sops F) (fetch_tag bops F) srpost s1 s2.
Proof.
  intros HS. unfold fetch_tag.
  sk rwp_save_simple_key. sk rwp_disallow_simple_key.
  eapply rwp_bind_rpost; [apply H_tag; eassumption|]. intros t u1 u2 HU _.
  apply rwp_push_tok; [exact HU|reflexivity|]. intros. fin.
Qed.

Lemma rwp_fetch_anchor F alias s1 s2 : SR s1 s2 -> 1 <= bl2 s2 ->
  rwp (fetch_anchor sops F alias) (fetch_anchor bops F alias) srpost s1 s2.
Proof.
  intros HS HB. unfold fetch_anchor.
  sk rwp_save_simple_key. sk rwp_disallow_simple_key.
  eapply rwp_bind_rpost; [apply H_anchor; [eassumption|lia]|]. intros t u1 u2 HU _.
  apply rwp_push_tok; [exact HU|reflexivity|]. intros. fin.
Qed.

Lemma rwp_fetch_block_scalar F literal s1 s2 : (strict = true -> 2 * N0 + 6 <= F) -> SR s1 s2 -> 1 <= bl2 s2 ->
  rwp (fetch_block_scalar sops F literal) (fetch_block_scalar bops F literal) srpost s1 s2.
Proof.
  intros HF HS HB. unfold fetch_block_scalar.
  sk rwp_save_simple_key. sk rwp_allow_simple_key.
  eapply rwp_bind_rpost; [apply H_block; [exact HF|eassumption|lia]|]. intros t u1 u2 HU _.
  apply rwp_push_tok; [exact HU|reflexivity|]. intros. fin.
Qed.

Lemma rwp_fetch_flow_scalar F single s1 s2 : SR s1 s2 -> 1 <= bl2 s2 ->
  rwp (fetch_flow_scalar sops F single) (fetch_flow_scalar bops F single) srpost s1 s2.
Proof.
  intros HS HB. unfold fetch_flow_scalar.
  sk rwp_save_simple_key. sk rwp_disallow_simple_key.
  eapply rwp_bind_rpost; [apply H_flow; [eassumption|lia]|]. intros t u1 u2 HU _.
  eapply rwp_bind_rpost; [apply H_next; exact HU|]. intros [] v1 v2 HV _.
  apply rwp_bind. apply rwp_modify_skel; [rel_skel|reflexivity|reflexivity|]. intros ? ? ? ? ?.
  apply rwp_push_tok; [eassumption|reflexivity|]. intros. fin.
Qed.

Lemma rwp_fetch_plain_scalar F s1 s2 : (strict = true -> 2 * N0 + 6 <= F) -> SR s1 s2 ->
  rwp (fetch_plain_scalar sops F) (fetch_plain_scalar bops F) srpost s1 s2.
Proof.
  intros HF HS. unfold fetch_plain_scalar.
  sk rwp_save_simple_key. sk rwp_disallow_simple_key.
  eapply rwp_bind_rpost; [apply H_plain; [exact HF|eassumption]|]. intros t u1 u2 HU _.
  apply rwp_push_tok; [exact HU|reflexivity|]. intros. fin.
Qed.

(* flow collections *)
Lemma rwp_fetch_flow_collection_start F seq s1 s2 : SR s1 s2 -> 1 <= bl2 s2 ->
  rwp (fetch_flow_collection_start sops F seq) (fetch_flow_collection_start bops F seq) srpost s1 s2.
Proof.
  intros HS HB. unfold fetch_flow_collection_start.
  sk rwp_save_simple_key. sk rwp_roll_one_col_indent. sk rwp_increase_flow_level. sk rwp_allow_simple_key.
  apply rwp_bind. apply rwp_mark; [eassumption|].
  apply rwp_bind. apply (rwp_skip_non_blank cap cap_ge); [eassumption|lia|]. intros ? ? ? ? ?.
  apply rwp_bind. apply rwp_modify_skel; [rel_skel|reflexivity|reflexivity|]. intros ? ? ? ? ?.
  eapply rwp_bind_rpost; [apply H_ws; eassumption|]. intros tw w1 w2 HW _.
  apply rwp_bind. apply rwp_mark; [exact HW|].
  apply rwp_push_tok; [exact HW|reflexivity|]. intros. fin.
Qed.

Lemma rwp_check_flow_closer seq (Q : unit -> st1 -> unit -> st2 -> Prop) s1 s2 :
  SR s1 s2 -> Q tt s1 tt s2 -> rwp (check_flow_closer seq) (check_flow_closer seq) Q s1 s2.
Proof.
  intros HS HQ. unfold check_flow_closer. apply rwp_bind. apply rwp_get. cbv beta. sr_sync HS.
  destruct (sc_ifms s1) as [|st r]; [apply rwp_ret; exact HQ|]. cbv zeta.
  destruct (Bool.eqb _ _); [apply rwp_ret; exact HQ|]. apply rwp_fail. reflexivity.
Qed.

Lemma rwp_fetch_flow_collection_end F seq s1 s2 : SR s1 s2 -> 1 <= bl2 s2 ->
  rwp (fetch_flow_collection_end sops F seq) (fetch_flow_collection_end bops F seq) srpost s1 s2.
Proof.
  intros HS HB. unfold fetch_flow_collection_end.
  apply rwp_bind. apply rwp_check_flow_closer; [exact HS|]. cbv beta.
  sk rwp_remove_simple_key. sk rwp_decrease_flow_level. sk rwp_disallow_simple_key.
  match goal with |- rwp _ _ _ ?a ?b => eapply (rwp_bind_rpost strict N0 (bl2 b)) end.
  { destruct seq.
    - apply rwp_bind. apply rwp_mark; [eassumption|].
      apply rwp_end_implicit_mapping; [eassumption|reflexivity|]. intros. fin.
    - apply rwp_ret. fin. }
  intros [] u1 u2 HU BU.
  apply rwp_bind. apply rwp_modify_skel; [rel_skel|reflexivity|reflexivity|]. intros ? ? ? ? ?.
  apply rwp_bind. apply rwp_mark; [eassumption|].
  apply rwp_bind. apply (rwp_skip_non_blank cap cap_ge); [eassumption|lia|]. intros ? ? ? ? ?.
  eapply rwp_bind_rpost; [apply H_ws; eassumption|]. intros tw w1 w2 HW _.
  apply rwp_bind. apply rwp_modify; [rem_le|]. cbv beta.
  match goal with |- rwp _ _ _ ?a ?b => assert (HX : SR a b) end.
  { sr_sync HW. destruct (0 <? sc_flow_level w1)%N; rel_skel. }
  match goal with |- rwp _ _ _ ?a ?b => generalize dependent a; generalize dependent b end.
  intros x2 x1 HX.
  apply rwp_bind. apply rwp_mark; [exact HX|].
  apply rwp_push_tok; [exact HX|reflexivity|]. intros. fin.
Qed.

Lemma rwp_fetch_flow_entry F s1 s2 : SR s1 s2 -> 1 <= bl2 s2 ->
  rwp (fetch_flow_entry sops F) (fetch_flow_entry bops F) srpost s1 s2.
Proof.
  intros HS HB. unfold fetch_flow_entry.
  sk rwp_remove_simple_key. sk rwp_allow_simple_key.
  apply rwp_bind. apply rwp_mark; [eassumption|].
  apply rwp_bind. apply rwp_end_implicit_mapping; [eassumption|reflexivity|]. intros ? ? ? ? ?.
  apply rwp_bind. apply (rwp_skip_non_blank cap cap_ge); [eassumption|lia|]. intros ? ? ? ? ?.
  eapply rwp_bind_rpost; [apply H_ws; eassumption|]. intros tw w1 w2 HW _.
  apply rwp_bind. apply rwp_mark; [exact HW|].
  apply rwp_push_tok; [exact HW|reflexivity|]. intros. fin.
Qed.

(* block entry *)
Lemma rwp_fetch_block_entry F s1 s2 : SR s1 s2 -> 1 <= bl2 s2 ->
  rwp (fetch_block_entry sops F) (fetch_block_entry bops F) srpost s1 s2.
Proof.
  intros HS HB. unfold fetch_block_entry.
  apply rwp_bind. apply rwp_get. cbv beta zeta. sr_sync HS.
  same_if; [apply rwp_fail; reflexivity|].
  same_if; [apply rwp_fail; reflexivity|].
  apply rwp_bind.
  apply rwp_mono with (Q := fun (_ : unit) (t1 : st1) (_ : unit) (t2 : st2) => t1 = s1 /\ t2 = s2).
  { destruct (last (sc_tokens s1) (span_empty mk0, TStreamEnd)) as [sp tk].
    destruct tk; try (apply rwp_ret; split; reflexivity);
      (same_if; [apply rwp_fail; reflexivity|apply rwp_ret; split; reflexivity]). }
  intros [] t1 [] t2 [-> ->].
  apply rwp_bind. apply (rwp_skip_non_blank cap cap_ge); [exact HS|exact HB|]. intros u1 u2 HU RU BU.
  apply rwp_bind. apply rwp_roll_indent; [exact HU|reflexivity|]. intros v1 v2 HV RV BV.
  eapply rwp_bind_rpost; [apply H_ws; exact HV|]. intros tw w1 w2 HW BW.
  apply rwp_bind. apply (rwp_look cap cap_ge); [exact HW|lia|]. intros x1 x2 HX RX EX BX _.
  apply rwp_bind. apply (rwp_peek cap cap_ge); [exact HX|lia|].
  apply rwp_bind. apply (rwp_peekn cap cap_ge); [exact HX|lia|].
  same_if; [apply rwp_mark_fail; exact HX|].
  eapply rwp_bind_rpost; [apply H_ws; exact HX|]. intros tw' y1 y2 HY BY.
  apply rwp_bind. apply (rwp_look cap cap_ge); [exact HY|lia|]. intros z1 z2 HZ RZ EZ BZ _.
  apply rwp_bind. apply (rwp_peek cap cap_ge); [exact HZ|lia|].
  eapply (rwp_bind_rpost strict N0 0).
  { same_if; [apply rwp_roll_one_col_indent; [exact HZ|]; intros; fin|apply rwp_ret; fin]. }
  intros [] a1 a2 HA _.
  sk rwp_remove_simple_key. sk rwp_allow_simple_key.
  apply rwp_bind. apply rwp_mark; [eassumption|].
  apply rwp_push_tok; [eassumption|reflexivity|]. intros. fin.
Qed.

(* document indicators *)
Lemma rwp_fetch_document_indicator t s1 s2 : SR s1 s2 -> 3 <= bl2 s2 ->
  rwp (fetch_document_indicator sops t) (fetch_document_indicator bops t) srpost s1 s2.
Proof.
  intros HS HB. unfold fetch_document_indicator.
  sk rwp_unroll_indent. sk rwp_remove_simple_key. sk rwp_disallow_simple_key.
  apply rwp_bind. apply rwp_mark; [eassumption|].
  apply rwp_bind. apply (rwp_skip_n_non_blank cap cap_ge); [eassumption|lia|]. intros u1 u2 HU RU BU.
  apply rwp_bind. apply rwp_mark; [exact HU|].
  apply rwp_push_tok; [exact HU|reflexivity|]. intros. fin.
Qed.

(* key / value *)
Lemma rwp_fetch_key F s1 s2 : SR s1 s2 -> 1 <= bl2 s2 ->
  rwp (fetch_key sops F) (fetch_key bops F) srpost s1 s2.
Proof.
  intros HS HB. unfold fetch_key.
  apply rwp_bind. apply rwp_get. cbv beta zeta. sr_sync HS.
  eapply (rwp_bind_rpost strict N0 (bl2 s2)).
  { same_if.
    - same_if; [apply rwp_fail; reflexivity|]. apply rwp_roll_indent; [exact HS|reflexivity|]. intros. fin.
    - apply rwp_modify; [rem_le|]. cbv beta.
      assert (HI := SR_ifms _ _ HS).
      destruct (sc_ifms s1) as [|[| | |] r]; rewrite <- HI; try (apply rpost_intro; [exact HS|lia]).
      apply rpost_intro; [rel_skel|reflexivity]. }
  intros [] u1 u2 HU BU.
  sk rwp_remove_simple_key.
  match goal with |- rwp _ _ _ ?a ?b => eapply (rwp_bind_rpost strict N0 (bl2 b)) end.
  { same_if; [apply rwp_allow_simple_key|apply rwp_disallow_simple_key]; try eassumption; intros; fin. }
  intros [] v1 v2 HV BV.
  apply rwp_bind. apply (rwp_skip_non_blank cap cap_ge); [exact HV|lia|]. intros ? ? ? ? ?.
  eapply rwp_bind_rpost; [apply H_yws; eassumption|]. intros [] w1 w2 HW BW.
  apply rwp_bind. apply (rwp_peek cap cap_ge); [exact HW|lia|].
  same_if; [apply rwp_mark_fail; exact HW|].
  apply rwp_bind. apply rwp_mark; [exact HW|].
  apply rwp_push_tok; [exact HW|reflexivity|]. intros. fin.
Qed.

Lemma rwp_fetch_value F s1 s2 : SR s1 s2 -> 1 <= bl2 s2 ->
  rwp (fetch_value sops F) (fetch_value bops F) srpost s1 s2.
Proof.
  intros HS HB. unfold fetch_value.
  apply rwp_bind. apply rwp_get. cbv beta. sr_sync HS.
  destruct (sc_sks s1) as [|k ks] eqn:EK; [apply rwp_bind; apply rwp_panic_r|].
  apply rwp_bind. apply rwp_ret. cbv beta zeta.
  match goal with |- context [if ?b then modify _ else ret tt] => set (is_ifm := b) end.
  eapply (rwp_bind_rpost strict N0 (bl2 s2)).
  { same_if; [|apply rwp_ret; fin]. apply rwp_modify_skel; [rel_skel|reflexivity|reflexivity|]. intros. fin. }
  intros [] u1 u2 HU BU.
  apply rwp_bind. apply (rwp_skip_non_blank cap cap_ge); [exact HU|lia|]. intros v1 v2 HV RV BV.
  eapply (rwp_bind_rpost strict N0 0).
  { same_if; [|apply rwp_ret; fin].
    apply (rwp_look_ch cap cap_ge); [exact HV|]. intros w1 w2 HW RW EW BW _. fin. }
  intros c w1 w2 HW _.
  eapply (rwp_bind_rpost strict N0 0).
  { same_if; [|apply rwp_ret; fin].
    eapply rwp_bind_rpost; [apply H_ws; exact HW|]. intros tw x1 x2 HX BX.
    same_if; [|apply rwp_ret; fin].
    apply rwp_bind. apply (rwp_peek cap cap_ge); [exact HX|lia|].
    same_if; [apply rwp_mark_fail; exact HX|apply rwp_ret; fin]. }
  intros [] x1 x2 HX _.
  same_if.
  - (* the pending simple key becomes a KEY token *)
    apply rwp_bind. apply rwp_get. cbv beta. sr_sync HX.
    apply rwp_bind. same_if; [apply rwp_panic_r|]. apply rwp_ret.
    apply rwp_bind. apply rwp_insert_token; [exact HX|reflexivity|reflexivity|]. intros y1 y2 HY _ _.
    eapply (rwp_bind_rpost strict N0 0).
    { same_if; [|apply rwp_ret; fin]. same_if; [apply rwp_fail; reflexivity|]. same_if; [|apply rwp_ret; fin].
      apply rwp_insert_token; [exact HY|reflexivity|reflexivity|]. intros. fin. }
    intros [] z1 z2 HZ _.
    apply rwp_bind. apply rwp_roll_indent; [exact HZ|reflexivity|]. intros ? ? ? ? ?.
    sk rwp_roll_one_col_indent.
    apply rwp_bind. apply rwp_modify; [rem_le|]. cbv beta.
    match goal with |- rwp _ _ _ ?a ?b => assert (HA : SR a b) end.
    { match goal with H : SR ?a ?b |- SR (match sc_sks ?a with _ => _ end) _ =>
        rewrite <- (SR_sks _ _ H); destruct (sc_sks a); rel_skel end. }
    match goal with |- rwp _ _ _ ?a ?b => generalize dependent a; generalize dependent b end.
    intros a2 a1 HA.
    sk rwp_disallow_simple_key.
    apply rwp_push_tok; [eassumption|reflexivity|]. intros. fin.
  - (* no simple key: an empty key *)
    eapply (rwp_bind_rpost strict N0 0).
    { same_if; [|apply rwp_ret; fin]. apply rwp_push_tok; [exact HX|reflexivity|]. intros. fin. }
    intros [] y1 y2 HY _.
    apply rwp_bind. apply rwp_get. cbv beta. sr_sync HY.
    eapply (rwp_bind_rpost strict N0 0).
    { same_if; [|apply rwp_ret; fin]. same_if; [apply rwp_fail; reflexivity|].
      apply rwp_roll_indent; [exact HY|reflexivity|]. intros. fin. }
    intros [] z1 z2 HZ _.
    sk rwp_roll_one_col_indent.
    eapply (rwp_bind_rpost strict N0 0).
    { same_if; [apply rwp_allow_simple_key|apply rwp_disallow_simple_key]; try eassumption; intros; fin. }
    intros [] a1 a2 HA _.
    apply rwp_push_tok; [exact HA|reflexivity|]. intros. fin.
Qed.

Lemma rwp_fetch_flow_value F s1 s2 : SR s1 s2 -> 2 <= bl2 s2 ->
  rwp (fetch_flow_value sops F) (fetch_flow_value bops F) srpost s1 s2.
Proof.
  intros HS HB. unfold fetch_flow_value.
  apply rwp_bind. apply (rwp_peekn cap cap_ge); [exact HS|lia|].
  apply rwp_bind. apply rwp_get. cbv beta. sr_sync HS.
  same_if; [apply rwp_fail; reflexivity|]. apply rwp_fetch_value; [exact HS|lia].
Qed.

(* the dispatcher *)
Lemma rwp_fetch_next_token F s1 s2 : (strict = true -> 2 * N0 + 6 <= F) -> SR s1 s2 ->
  rwp (fetch_next_token sops F) (fetch_next_token bops F) srpost s1 s2.
Proof.
  intros HF HS. rewrite (fetch_next_token_shape sops F), (fetch_next_token_shape bops F).
  apply rwp_bind. apply (rwp_look cap cap_ge); [exact HS|lia|]. intros u1 u2 HU _ _ _ _.
  apply rwp_bind. apply rwp_get. cbv beta. sr_sync HU.
  same_if; [apply rwp_fetch_stream_start; exact HU|].
  eapply rwp_bind_rpost; [apply H_next; exact HU|]. intros [] v1 v2 HV _.
  sk rwp_stale_simple_keys.
  apply rwp_bind. apply rwp_mark; [eassumption|].
  sk rwp_unroll_indent.
  apply rwp_bind. apply (rwp_look cap cap_ge); [eassumption|lia|]. intros w1 w2 HW _ _ BW _.
  apply rwp_bind. apply (rwp_next_is cap cap_ge); [exact HW|lia|].
  same_if; [apply rwp_fetch_stream_end; exact HW|].
  apply rwp_bind. apply rwp_get. cbv beta. sr_sync HW.
  apply rwp_bind. apply (rwp_peek cap cap_ge); [exact HW|lia|].
  eapply (rwp_bind_rpost strict N0 4).
  { same_if; [|apply rwp_ret; fin]. same_if; [apply rwp_ret; fin|].
    apply (rwp_next_is_document_start cap cap_ge); [exact HW|lia|]. fin. }
  intros dstart x1 x2 HX BX.
  eapply (rwp_bind_rpost strict N0 4).
  { same_if; [|apply rwp_ret; fin]. apply (rwp_next_is_document_end cap cap_ge); [exact HX|lia|]. fin. }
  intros dend y1 y2 HY BY.
  same_if; [apply rwp_fetch_directive; [exact HY|lia]|].
  same_if; [apply rwp_fetch_document_indicator; [exact HY|lia]|].
  same_if.
  { eapply rwp_bind_srpost; [apply rwp_fetch_document_indicator; [exact HY|lia]|]. intros [] z1 z2 HZ.
    eapply rwp_bind_rpost; [apply H_ws; exact HZ|]. intros tw a1 a2 HA BA.
    apply rwp_bind. apply (rwp_next_is cap cap_ge); [exact HA|lia|].
    same_if; [apply rwp_ret; fin|apply rwp_mark_fail; exact HA]. }
  same_if; [apply rwp_fail; reflexivity|].
  apply rwp_bind. apply (rwp_peek cap cap_ge); [exact HY|lia|].
  apply rwp_bind. apply (rwp_peekn cap cap_ge); [exact HY|lia|]. cbv beta.
  (* the source's match takes the same arm on both sides: related states have the same flow level and adjacency *)
  apply (dispatch_both (fun m1 m2 => rwp m1 m2 srpost y1 y2)); [sr_sync HW; reflexivity|].
  intros [] _; cbn [run_dact].
  - apply rwp_fetch_flow_collection_start; [exact HY|lia].
  - apply rwp_fetch_flow_collection_end; [exact HY|lia].
  - apply rwp_fetch_flow_entry; [exact HY|lia].
  - apply rwp_fetch_block_entry; [exact HY|lia].
  - apply rwp_fetch_key; [exact HY|lia].
  - apply rwp_fetch_value; [exact HY|lia].
  - apply rwp_fetch_flow_value; [exact HY|lia].
  - apply rwp_fetch_anchor; [exact HY|lia].
  - apply rwp_fetch_tag; exact HY.
  - apply rwp_fetch_block_scalar; [exact HF|exact HY|lia].
  - apply rwp_fetch_flow_scalar; [exact HY|lia].
  - apply rwp_fetch_plain_scalar; [exact HF|exact HY].
  - sr_sync HW. apply rwp_fail; reflexivity.
Qed.

(* fetch_more_tokens / next_token *)
Lemma rwp_fetch_more_tokens F fuel : (strict = true -> 2 * N0 + 6 <= F) -> forall s1 s2, SR s1 s2 ->
  rwp (fetch_more_tokens sops F fuel) (fetch_more_tokens bops F fuel) srpost s1 s2.
Proof.
  intros HF. induction fuel as [|fuel IH]; intros s1 s2 HS; [apply rwp_oof_l|]. cbn [fetch_more_tokens].
  apply rwp_bind. apply rwp_get. cbv beta. sr_sync HS.
  eapply (rwp_bind_rpost strict N0 0).
  { destruct (sc_tokens s1) as [|t r]; [apply rwp_ret; fin|].
    sk rwp_stale_simple_keys. apply rwp_bind. apply rwp_get. cbv beta. apply rwp_ret.
    split; [rel_eq|]. split; [assumption|lia]. }
  intros need u1 u2 HU _.
  destruct need.
  - eapply rwp_bind_srpost; [apply rwp_fetch_next_token; [exact HF|exact HU]|]. intros [] v1 v2 HV. apply IH. exact HV.
  - apply rwp_modify; [rem_le|]. apply srpost_intro. rel_skel.
Qed.

Theorem rwp_next_token F s1 s2 : (strict = true -> 2 * N0 + 6 <= F) -> SR s1 s2 ->
  rwp (next_token sops F) (next_token bops F) srpost s1 s2.
Proof.
  intros HF HS. unfold next_token.
  apply rwp_bind. apply rwp_get. cbv beta. sr_sync HS.
  same_if; [apply rwp_ret; fin|].
  eapply rwp_bind_srpost.
  { same_if; [apply rwp_ret; fin|apply rwp_fetch_more_tokens; [exact HF|exact HS]]. }
  intros [] u1 u2 HU.
  apply rwp_bind. apply rwp_get. cbv beta. sr_sync HU.
  destruct (sc_tokens u1) as [|t r] eqn:ET; [apply rwp_fail; reflexivity|].
  apply rwp_bind. apply rwp_put_skel; [rel_skel|reflexivity|reflexivity|]. intros v1 v2 HV _ _.
  eapply rwp_bind_srpost.
  { destruct (snd t); try (apply rwp_ret; fin). apply rwp_modify; [rem_le|]. apply srpost_intro. rel_skel. }
  intros [] w1 w2 HW. apply rwp_ret. fin.
Qed.

End RelFetch.

Print Assumptions rwp_fetch_next_token.
Print Assumptions rwp_next_token.
