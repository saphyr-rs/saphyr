(* C15 tail independence of the scanner (see ScanShift.v): the family of QUOTED (flow) SCALARS - the walk of
   ScanLockFlow.v at the lock [shf_lock d].  The one test that looks at a LINE - the implicit-key check
   m_line start =? m_line (current mark)  at the closing quote - compares two marks of the same side; both are shifted
   by [sh_l d] ([MS_line_eqb]). *)
Require Import ScanShift.
Require ScanLockFlow.

Theorem scan_flow_scalar_ok d : shf_scan_flow_scalar d.
Proof. exact (ScanLockFlow.scan_flow_scalar_ok (shf_lock d)). Qed.

Print Assumptions scan_flow_scalar_ok.
