(* C17, scanner half: what the scanner's observable flags say at the moment the StreamEnd token is handed out.

   Generic in the input type and its operations, for every fuel parameter, for every state.

   [SEInv]: as long as the scanner has not handed out StreamEnd, its queue either holds no StreamEnd token at all, or
   ([Fin]) it ends with exactly one, whose span is the empty span AT THE SCANNER'S CURRENT MARK, and no simple key is
   possible - so fetch_more_tokens never fetches again and the mark never moves again.
   [next_token_se]: next_token sets [sc_stream_end] exactly when the token it hands out is StreamEnd, and that token's
   span is [span_empty (sc_mark s')] in the state [s'] it leaves behind: Scanner::mark() after StreamEnd has been
   handed out IS the position of the StreamEnd token. *)
From Coq Require Import List NArith ZArith Bool Lia.
Import ListNotations.
Require Import Parser SBase SPrim SDir SScalar SFetch ScanFrame DocScan ScanLeaf.
Require DispatchTie.

Definition is_se (t : tok) : bool := match t with TStreamEnd => true | _ => false end.
Definition tnse (t : token) : Prop := is_se (snd t) = false.
Definition allclr (l : list simple_key) : Prop := Forall (fun k => sk_possible k = false) l.

Section Keep.
Context {I : Type}.
Notation st := (sc I).
Notation M := (@M I).

Definition NoSE (s : st) : Prop := forall t, In t (sc_tokens s) -> tnse t.
Definition Fin (s : st) : Prop :=
  allclr (sc_sks s) /\ exists l, sc_tokens s = l ++ [(span_empty (sc_mark s), TStreamEnd)] /\ (forall t, In t l -> tnse t).
Definition SEInv (s : st) : Prop := sc_stream_end s = false -> NoSE s \/ Fin s.

(* a step that may queue tokens, none of them StreamEnd, and does not touch the stream-end flag *)
Definition fl (s s' : st) : Prop :=
  sc_stream_end s' = sc_stream_end s /\ (sc_stream_start s = true -> sc_stream_start s' = true).
Definition kp (s s' : st) : Prop :=
  (forall t, In t (sc_tokens s') -> In t (sc_tokens s) \/ tnse t) /\ fl s s'.
Lemma fl_refl s : fl s s.
Proof. split; auto. Qed.
Lemma fl_trans a b c : fl a b -> fl b c -> fl a c.
Proof. intros [A1 A2] [B1 B2]. split; [congruence|auto]. Qed.
Definition Keeps {A} (m : M A) : Prop := forall s a s', m s = Ok (a, s') -> kp s s'.

Lemma kp_refl s : kp s s.
Proof. split; [auto|apply fl_refl]. Qed.
Lemma kp_trans a b c : kp a b -> kp b c -> kp a c.
Proof.
  intros [A1 A2] [B1 B2]. split; [|eapply fl_trans; eauto]. intros t Ht. destruct (B1 t Ht) as [H|H]; [|right; exact H]. apply A1, H.
Qed.
Lemma kp_same s s' : sc_tokens s' = sc_tokens s -> sc_stream_end s' = sc_stream_end s ->
  sc_stream_start s' = sc_stream_start s -> kp s s'.
Proof. intros A B C. split; [|split; [exact B|congruence]]. intros t Ht. left. rewrite <- A. exact Ht. Qed.
Lemma kp_NoSE s s' : kp s s' -> NoSE s -> NoSE s'.
Proof. intros [A _] H t Ht. destruct (A t Ht) as [X|X]; [apply H, X|exact X]. Qed.

(* a frame (Proofs/ScanFrame.v) leaves the token queue and the stream flags as they are *)
Lemma Keeps_of_Fr {A} (m : M A) : Fr m -> Keeps m.
Proof.
  intros HF s a s' E. destruct (HF _ _ _ E) as (_ & _ & _ & F4 & _ & F6 & F7 & _). apply kp_same; assumption.
Qed.
Lemma Keeps_ret {A} (a : A) : Keeps (ret a).
Proof. apply Keeps_of_Fr, Fr_ret. Qed.
Lemma Keeps_fail {A} e mk : Keeps (@fail I A e mk).
Proof. apply Keeps_of_Fr, Fr_fail. Qed.
Lemma Keeps_panic {A} n : Keeps (@panic I A n).
Proof. apply Keeps_of_Fr, Fr_panic. Qed.
Lemma Keeps_oof {A} : Keeps (@oof I A).
Proof. apply Keeps_of_Fr, Fr_oof. Qed.
Lemma Keeps_get : Keeps (@get I).
Proof. apply Keeps_of_Fr, Fr_get. Qed.
Lemma Keeps_gets {A} (f : st -> A) : Keeps (gets f).
Proof. apply Keeps_of_Fr, Fr_gets. Qed.
Lemma Keeps_modify f : (forall s, kp s (f s)) -> Keeps (modify f).
Proof. intros Hf s a s' H. inversion H; subst. apply Hf. Qed.
Lemma Keeps_bind {A B} (m : M A) (f : A -> M B) : Keeps m -> (forall a, Keeps (f a)) -> Keeps (bind m f).
Proof.
  intros Hm Hf s b s'. unfold bind. destruct (m s) as [[a s1]| | |] eqn:E; try discriminate.
  intros H. eapply kp_trans; [eapply Hm; eauto|eapply Hf; eauto].
Qed.
Lemma Keeps_bind2 {A B} (R : A -> Prop) (m : M A) (f : A -> M B) :
  Res R m -> Keeps m -> (forall a, R a -> Keeps (f a)) -> Keeps (bind m f).
Proof.
  intros HR Hm Hf s b s'. unfold bind. destruct (m s) as [[a s1]| | |] eqn:E; try discriminate.
  intros H. eapply kp_trans; [eapply Hm; eauto|eapply Hf; [eapply HR; eauto|eauto]].
Qed.
Lemma Keeps_get_bind {B} (f : st -> M B) : (forall s0, Keeps (f s0)) -> Keeps (bind get f).
Proof. intros H s b s' E. unfold bind, get in E. eapply H; eauto. Qed.
Lemma Keeps_push_tok t : tnse t -> Keeps (@push_tok I t).
Proof.
  intros Ht. apply Keeps_modify. intros s. split; [|split; [reflexivity|intro X; exact X]]. cbn. intros u Hu. apply in_app_or in Hu.
  destruct Hu as [Hu|[<-|[]]]; [left; exact Hu|right; exact Ht].
Qed.
Lemma insert_at_In {A} (x : A) : forall n l l', insert_at n x l = Some l' -> forall y, In y l' -> y = x \/ In y l.
Proof.
  induction n as [|n IH]; intros l l' E y Hy; cbn [insert_at] in E.
  - inversion E; subst. destruct Hy as [<-|Hy]; auto.
  - destruct l as [|z r]; [discriminate|]. destruct (insert_at n x r) as [r'|] eqn:E'; [|discriminate].
    inversion E; subst. destruct Hy as [<-|Hy]; [right; left; reflexivity|].
    destruct (IH _ _ E' _ Hy) as [->|H]; [left; reflexivity|right; right; exact H].
Qed.
Lemma Keeps_insert_token pos t : tnse t -> Keeps (@insert_token I pos t).
Proof.
  intros Ht s a s' E. unfold insert_token in E. destruct (insert_at _ t (sc_tokens s)) as [l|] eqn:EI; [|discriminate].
  inversion E; subst. split; [|split; [reflexivity|intro X; exact X]]. cbn. intros u Hu. destruct (insert_at_In _ _ _ _ EI _ Hu) as [->|H]; auto.
Qed.

(* the skeleton primitives that read the state and write it back *)
Ltac kb H :=
  repeat (cbn [bind get put ret modify gets fail panic oof] in H;
          lazymatch type of H with
          | Ok _ = Ok _ => fail
          | Err _ _ = _ => discriminate H
          | Panic _ = _ => discriminate H
          | OutOfFuel = _ => discriminate H
          | context [if ?b then _ else _] => destruct b
          | context [match ?x with _ => _ end] => destruct x
          end).
Ltac ksame := apply kp_same; reflexivity.

Lemma Keeps_roll_indent col num tk mk : is_se tk = false -> Keeps (@roll_indent I col num tk mk).
Proof.
  intros Htk s a s' H. unfold roll_indent in H. unfold bind at 1, get at 1 in H.
  destruct (0 <? sc_flow_level s)%N; [inversion H; subst; apply kp_refl|].
  match type of H with (let '(ind, inds) := ?x in _) _ = _ => destruct x as [ind inds] end.
  destruct (ind <? Z.of_N col)%Z.
  - destruct (_ <=? _)%N; [discriminate|]. unfold bind at 1, put at 1 in H.
    destruct num as [n|].
    + destruct (n <? _)%N; [discriminate|]. eapply kp_trans; [|eapply Keeps_insert_token; [|exact H]; exact Htk]. ksame.
    + eapply kp_trans; [|eapply Keeps_push_tok; [|exact H]; exact Htk]. ksame.
  - inversion H; subst. ksame.
Qed.

Lemma Keeps_unroll_indent_go fuel : forall col, Keeps (@unroll_indent_go I fuel col).
Proof.
  induction fuel as [|fuel IH]; intros col s a s' H; cbn [unroll_indent_go] in H; [discriminate|].
  unfold bind at 1, get at 1 in H. destruct (col <? sc_indent s)%Z; [|inversion H; subst; apply kp_refl].
  destruct (sc_indents s) as [|i r]; [discriminate|]. unfold bind at 1, put at 1 in H.
  destruct (in_needs_block_end i).
  - unfold bind at 1, push_tok at 1, modify at 1 in H. eapply kp_trans; [|eapply IH; exact H].
    split; [|split; [reflexivity|intro X; exact X]]. cbn. intros u Hu. apply in_app_or in Hu. destruct Hu as [Hu|[<-|[]]]; [left; exact Hu|right; reflexivity].
  - unfold bind at 1, ret at 1 in H. eapply kp_trans; [|eapply IH; exact H]. ksame.
Qed.
Lemma Keeps_unroll_indent col : Keeps (@unroll_indent I col).
Proof.
  intros s a s' H. unfold unroll_indent in H. unfold bind at 1, get at 1 in H.
  destruct (0 <? sc_flow_level s)%N; [inversion H; subst; apply kp_refl|]. eapply Keeps_unroll_indent_go; eauto.
Qed.
Lemma Keeps_roll_one_col_indent : Keeps (@roll_one_col_indent I).
Proof. intros s a s' H. unfold roll_one_col_indent in H. kb H; inversion H; subst; ksame. Qed.
Lemma Keeps_save_simple_key : Keeps (@save_simple_key I).
Proof. intros s a s' H. unfold save_simple_key in H. kb H; inversion H; subst; ksame. Qed.
Lemma Keeps_remove_simple_key : Keeps (@remove_simple_key I).
Proof. intros s a s' H. unfold remove_simple_key in H. kb H; inversion H; subst; ksame. Qed.
Lemma Keeps_stale_simple_keys : Keeps (@stale_simple_keys I).
Proof.
  intros s a s' H. unfold stale_simple_keys in H. unfold bind, get in H. cbv zeta in H.
  destruct (existsb _ _); [discriminate|]. inversion H; subst. ksame.
Qed.
Lemma Keeps_end_implicit_mapping mk : Keeps (@end_implicit_mapping I mk).
Proof.
  intros s a s' H. unfold end_implicit_mapping in H. unfold bind at 1, get at 1 in H.
  destruct (sc_ifms s) as [|[] r]; try (inversion H; subst; first [apply kp_refl|ksame]).
  unfold bind, put, push_tok, modify in H. inversion H; subst. split; [|split; [reflexivity|intro X; exact X]]. cbn. intros u Hu.
  apply in_app_or in Hu. destruct Hu as [Hu|[<-|[]]]; [left; exact Hu|right; reflexivity].
Qed.
Lemma Keeps_increase_flow_level : Keeps (@increase_flow_level I).
Proof. intros s a s' H. unfold increase_flow_level in H. kb H; inversion H; subst; ksame. Qed.
Lemma Keeps_decrease_flow_level : Keeps (@decrease_flow_level I).
Proof. intros s a s' H. unfold decrease_flow_level in H. kb H; inversion H; subst; first [apply kp_refl|ksame]. Qed.
Lemma Keeps_allow_simple_key : Keeps (@allow_simple_key I).
Proof. apply Keeps_of_Fr, Fr_allow_simple_key. Qed.
Lemma Keeps_disallow_simple_key : Keeps (@disallow_simple_key I).
Proof. apply Keeps_modify. intros s. ksame. Qed.
Lemma Keeps_mark : Keeps (@mark I).
Proof. apply Keeps_of_Fr, Fr_mark. Qed.

End Keep.

#[export] Hint Resolve Keeps_ret Keeps_fail Keeps_panic Keeps_oof Keeps_get Keeps_gets Keeps_unroll_indent
  Keeps_roll_one_col_indent Keeps_save_simple_key Keeps_remove_simple_key Keeps_stale_simple_keys Keeps_end_implicit_mapping
  Keeps_increase_flow_level Keeps_decrease_flow_level Keeps_allow_simple_key Keeps_disallow_simple_key Keeps_mark : kps.

(* [kp1] consults [res], which may be empty but has to exist *)
Create HintDb res.
Ltac kp1 :=
  lazymatch goal with
  | |- Keeps (bind get _) => apply Keeps_get_bind; intro
  | |- Keeps (bind _ _) =>
      first [ eapply Keeps_bind2; [solve [eauto with res]|solve [auto with kps fr nocore | apply Keeps_of_Fr; auto with fr]|intros ? ?]
            | apply Keeps_bind; [|intro] ]
  | |- Keeps (if ?b then _ else _) => destruct b
  | |- Keeps (match ?x with _ => _ end) => destruct x
  | |- Keeps (let _ := _ in _) => cbv zeta
  | |- Keeps (push_tok _) => apply Keeps_push_tok; first [reflexivity|assumption]
  | |- Keeps (insert_token _ _) => apply Keeps_insert_token; first [reflexivity|assumption]
  | |- Keeps (roll_indent _ _ _ _) => apply Keeps_roll_indent; reflexivity
  | |- Keeps (modify _) =>
      apply Keeps_modify; intro;
      repeat match goal with
             | |- kp _ (match ?b with _ => _ end) => destruct b
             | |- kp _ (if ?b then _ else _) => destruct b
             end; first [apply kp_refl | apply kp_same; reflexivity]
  | |- Keeps _ => first [solve [auto with kps nocore] | apply Keeps_of_Fr; solve [auto with fr]]
  end.
Ltac kps := repeat kp1.

Section Fetch.
Context {I : Type} (ops : InputOps I).
Notation st := (sc I).
Notation M := (@M I).
Variable F : nat.

(* the character-level scanners never return a StreamEnd token *)
Lemma leaf_tnse t : leaf t -> tnse t.
Proof. destruct t as [sp []]; intros H; first [reflexivity|discriminate H]. Qed.
Lemma SRes_leaf (m : M token) : Res leaf m -> Res tnse m.
Proof. apply Res_impl, leaf_tnse. Qed.

Lemma SRes_scan_directive : Res tnse (scan_directive ops F).
Proof. apply SRes_leaf, leaf_scan_directive. Qed.
Lemma SRes_scan_tag : Res tnse (scan_tag ops F).
Proof. apply SRes_leaf, leaf_scan_tag. Qed.
Lemma SRes_scan_anchor alias : Res tnse (scan_anchor ops F alias).
Proof. apply SRes_leaf, leaf_scan_anchor. Qed.
Lemma SRes_scan_flow_scalar single : Res tnse (scan_flow_scalar ops F single).
Proof. apply SRes_leaf, leaf_scan_flow_scalar. Qed.
Lemma SRes_scan_plain_scalar : Res tnse (scan_plain_scalar ops F).
Proof. apply SRes_leaf, leaf_scan_plain_scalar. Qed.
Lemma SRes_scan_block_scalar literal : Res tnse (scan_block_scalar ops F literal).
Proof. apply SRes_leaf, leaf_scan_block_scalar. Qed.
Hint Resolve SRes_scan_directive SRes_scan_tag SRes_scan_anchor SRes_scan_flow_scalar SRes_scan_plain_scalar SRes_scan_block_scalar : res.

Lemma Keeps_fetch_stream_start : Keeps (fetch_stream_start (I:=I)).
Proof.
  intros s a s'. unfold fetch_stream_start, bind, get, put. intros H; inversion H; subst.
  split; [|split; [reflexivity|intros _; reflexivity]]. cbn. intros u Hu. apply in_app_or in Hu. destruct Hu as [Hu|[<-|[]]]; [left; exact Hu|right; reflexivity].
Qed.
Lemma Keeps_fetch_directive : Keeps (fetch_directive ops F).
Proof. unfold fetch_directive. kps. Qed.
Lemma Keeps_fetch_tag : Keeps (fetch_tag ops F).
Proof. unfold fetch_tag. kps. Qed.
Lemma Keeps_fetch_anchor alias : Keeps (fetch_anchor ops F alias).
Proof. unfold fetch_anchor. kps. Qed.
Lemma Keeps_fetch_flow_collection_start seq : Keeps (fetch_flow_collection_start ops F seq).
Proof. unfold fetch_flow_collection_start. kps. apply Keeps_push_tok. destruct seq; reflexivity. Qed.
Lemma Keeps_check_flow_closer seq : Keeps (check_flow_closer (I:=I) seq).
Proof. unfold check_flow_closer. kps. Qed.
Hint Resolve Keeps_check_flow_closer : kps.
Lemma Keeps_fetch_flow_collection_end seq : Keeps (fetch_flow_collection_end ops F seq).
Proof. unfold fetch_flow_collection_end. kps; apply Keeps_push_tok; destruct seq; reflexivity. Qed.
Lemma Keeps_fetch_flow_entry : Keeps (fetch_flow_entry ops F).
Proof. unfold fetch_flow_entry. kps. Qed.
Lemma Keeps_fetch_block_entry : Keeps (fetch_block_entry ops F).
Proof. unfold fetch_block_entry. kps. Qed.
Lemma Keeps_fetch_document_indicator t : is_se t = false -> Keeps (fetch_document_indicator ops t).
Proof. intros Ht. unfold fetch_document_indicator. kps. Qed.
Lemma Keeps_fetch_block_scalar lit : Keeps (fetch_block_scalar ops F lit).
Proof. unfold fetch_block_scalar. kps. Qed.
Lemma Keeps_fetch_flow_scalar single : Keeps (fetch_flow_scalar ops F single).
Proof. unfold fetch_flow_scalar. kps. Qed.
Lemma Keeps_fetch_plain_scalar : Keeps (fetch_plain_scalar ops F).
Proof. unfold fetch_plain_scalar. kps. Qed.
Lemma Keeps_fetch_key : Keeps (fetch_key ops F).
Proof. unfold fetch_key. kps. Qed.
Lemma Keeps_fetch_value : Keeps (fetch_value ops F).
Proof. unfold fetch_value. kps. Qed.
Lemma Keeps_fetch_flow_value : Keeps (fetch_flow_value ops F).
Proof. unfold fetch_flow_value. kps. apply Keeps_fetch_value. Qed.
End Fetch.

Section Top.
Context {I : Type} (ops : InputOps I).
Notation st := (sc I).
Notation M := (@M I).
Variable F : nat.

(* mark and simple keys under the skeleton steps of fetch_stream_end / fetch_more_tokens *)
Lemma unroll_indent_go_sm fuel : forall col (s s' : st) a, unroll_indent_go fuel col s = Ok (a, s') ->
  sc_sks s' = sc_sks s /\ sc_mark s' = sc_mark s.
Proof.
  induction fuel as [|fuel IH]; intros col s s' a H; cbn [unroll_indent_go] in H; [discriminate|].
  unfold bind at 1, get at 1 in H. destruct (col <? sc_indent s)%Z; [|inversion H; subst; auto].
  destruct (sc_indents s) as [|i r]; [discriminate|]. unfold bind at 1, put at 1 in H.
  destruct (in_needs_block_end i).
  - unfold bind at 1, push_tok at 1, modify at 1 in H. apply IH in H. exact H.
  - unfold bind at 1, ret at 1 in H. apply IH in H. exact H.
Qed.
Lemma unroll_indent_sm col (s s' : st) a : unroll_indent col s = Ok (a, s') -> sc_sks s' = sc_sks s /\ sc_mark s' = sc_mark s.
Proof.
  unfold unroll_indent. unfold bind at 1, get at 1. destruct (0 <? sc_flow_level s)%N; [intros H; inversion H; subst; auto|].
  apply unroll_indent_go_sm.
Qed.
Lemma remove_simple_key_sm (s s' : st) a : remove_simple_key s = Ok (a, s') ->
  sc_mark s' = sc_mark s /\ sc_tokens s' = sc_tokens s /\ (allclr (sc_sks s) -> allclr (sc_sks s')).
Proof.
  unfold remove_simple_key. unfold bind, get. destruct (sc_sks s) as [|k r] eqn:EK; [discriminate|].
  destruct (_ && _); [discriminate|]. unfold put. intros H; inversion H; subst. cbn. repeat split; auto.
  intros HC. inversion HC; subst. constructor; [reflexivity|assumption].
Qed.
Lemma stale_simple_keys_sm (s s' : st) a : stale_simple_keys s = Ok (a, s') ->
  sc_mark s' = sc_mark s /\ sc_tokens s' = sc_tokens s /\ sc_stream_end s' = sc_stream_end s
  /\ sc_tokens_parsed s' = sc_tokens_parsed s /\ (allclr (sc_sks s) -> allclr (sc_sks s')).
Proof.
  unfold stale_simple_keys. unfold bind, get. cbv zeta. destruct (existsb _ _); [discriminate|].
  unfold put. intros H; inversion H; subst. cbn. repeat split; auto.
  intros HC. unfold allclr in *. rewrite Forall_forall in *. intros k Hk. apply in_map_iff in Hk. destruct Hk as (k0 & <- & Hk0).
  destruct (_ && _ && _); [reflexivity|apply HC, Hk0].
Qed.

Lemma fetch_stream_end_Fin (s s' : st) a : fetch_stream_end s = Ok (a, s') -> fl s s' /\ (NoSE s -> Fin s').
Proof.
  intros H. unfold fetch_stream_end in H. unfold bind at 1, modify at 1 in H.
  match type of H with ?m ?x = _ => set (s1 := x) in * end.
  assert (T1 : sc_tokens s1 = sc_tokens s /\ fl s s1) by (subst s1; destruct (_ =? _)%N; split; auto; split; auto).
  clearbody s1. unfold bind at 1, get at 1 in H. destruct (existsb _ _); [discriminate|].
  unfold bind at 1, put at 1 in H.
  match type of H with ?m ?x = _ => set (s2 := x) in * end.
  assert (T2 : sc_tokens s2 = sc_tokens s1 /\ fl s1 s2 /\ allclr (sc_sks s2)).
  { subst s2. cbn. repeat split; auto. unfold allclr. rewrite Forall_forall. intros k Hk. apply in_map_iff in Hk.
    destruct Hk as (k0 & <- & _). reflexivity. }
  clearbody s2. unfold bind at 1 in H. destruct (unroll_indent (-1) s2) as [[u3 s3]| | |] eqn:E3; try discriminate.
  pose proof (Keeps_unroll_indent _ _ _ _ E3) as K3. destruct (unroll_indent_sm _ _ _ _ E3) as [S3 M3].
  unfold bind at 1 in H. destruct (remove_simple_key s3) as [[u4 s4]| | |] eqn:E4; try discriminate.
  destruct (remove_simple_key_sm _ _ _ E4) as (M4 & T4 & C4). pose proof (Keeps_remove_simple_key _ _ _ E4) as [_ SE4].
  unfold bind, disallow_simple_key, modify, mark, gets, push_tok in H. inversion H; subst. clear H.
  destruct T1 as [T1 SE1], T2 as (T2 & SE2 & C2), K3 as [K3 SE3]. split.
  { eapply fl_trans; [exact SE1|]. eapply fl_trans; [exact SE2|]. eapply fl_trans; [exact SE3|]. eapply fl_trans; [exact SE4|].
    split; [reflexivity|intro X; exact X]. }
  intros HN. split.
  - cbn. apply C4. rewrite S3. exact C2.
  - exists (sc_tokens s4). cbn. split; [reflexivity|]. intros t Ht. rewrite T4 in Ht. destruct (K3 t Ht) as [X|X]; [|exact X].
    apply HN. rewrite <- T1, <- T2. exact X.
Qed.

(* fetch_next_token: flags, and what it does to a queue without StreamEnd *)
Definition FN {A} (m : M A) : Prop :=
  forall s a s', m s = Ok (a, s') -> fl s s' /\ (NoSE s -> NoSE s' \/ Fin s').
Lemma FN_of_Keeps {A} (m : M A) : Keeps m -> FN m.
Proof. intros HK s a s' E. pose proof (HK _ _ _ E) as K. split; [apply K|]. intros HN. left. eapply kp_NoSE; eauto. Qed.
Lemma FN_bind_keeps {A B} (m : M A) (f : A -> M B) : Keeps m -> (forall a, FN (f a)) -> FN (bind m f).
Proof.
  intros Hm Hf s b s'. unfold bind. destruct (m s) as [[a s1]| | |] eqn:E; try discriminate. intros H.
  pose proof (Hm _ _ _ E) as K. destruct (Hf a s1 b s' H) as [X Y]. split; [eapply fl_trans; [apply K|exact X]|].
  intros HN. apply Y. eapply kp_NoSE; eauto.
Qed.
Lemma FN_get_bind {B} (f : st -> M B) : (forall s0, FN (f s0)) -> FN (bind get f).
Proof. intros H s b s' E. unfold bind, get in E. eapply H; eauto. Qed.

Lemma FN_fetch_next_token : FN (fetch_next_token ops F).
Proof.
  rewrite DispatchTie.fetch_next_token_shape.
  apply FN_bind_keeps; [apply Keeps_of_Fr; auto with fr|intro].
  apply FN_get_bind; intro s0. destruct (negb (sc_stream_start s0)); [apply FN_of_Keeps, Keeps_fetch_stream_start|].
  apply FN_bind_keeps; [apply Keeps_of_Fr; auto with fr|intro].
  apply FN_bind_keeps; [auto with kps|intro].
  apply FN_bind_keeps; [auto with kps|intro].
  apply FN_bind_keeps; [auto with kps|intro].
  apply FN_bind_keeps; [apply Keeps_of_Fr; auto with fr|intro].
  apply FN_bind_keeps; [apply Keeps_of_Fr; auto with fr|intro z].
  destruct z.
  { intros x1 x2 x3 E. apply fetch_stream_end_Fin in E. destruct E as [E1 E2]. split; [exact E1|]. intros HN. right. apply E2, HN. }
  (* from here on no StreamEnd token is queued *)
  apply FN_of_Keeps. kps.
  - apply Keeps_fetch_directive.
  - apply Keeps_fetch_document_indicator. reflexivity.
  - apply Keeps_fetch_document_indicator. reflexivity.
  - apply DispatchTie.dispatch_cases. intros [] _; cbn [DispatchTie.run_dact].
    + apply Keeps_fetch_flow_collection_start.
    + apply Keeps_fetch_flow_collection_end.
    + apply Keeps_fetch_flow_entry.
    + apply Keeps_fetch_block_entry.
    + apply Keeps_fetch_key.
    + apply Keeps_fetch_value.
    + apply Keeps_fetch_flow_value.
    + apply Keeps_fetch_anchor.
    + apply Keeps_fetch_tag.
    + apply Keeps_fetch_block_scalar.
    + apply Keeps_fetch_flow_scalar.
    + apply Keeps_fetch_plain_scalar.
    + apply Keeps_fail.
Qed.

Lemma allclr_existsb (p : simple_key -> bool) l : allclr l -> existsb (fun k => sk_possible k && p k) l = false.
Proof. intros H. induction H as [|k l Hk Hl IH]; cbn [existsb]; [reflexivity|]. rewrite Hk, IH. reflexivity. Qed.

Definition Good (s : st) : Prop := NoSE s \/ Fin s.

Lemma fetch_next_token_ss (s s' : st) a : fetch_next_token ops F s = Ok (a, s') -> sc_stream_start s' = true.
Proof.
  intros H. destruct (sc_stream_start s) eqn:ESS.
  - destruct (FN_fetch_next_token _ _ _ H) as [[_ X] _]. apply X, ESS.
  - unfold fetch_next_token in H. unfold bind at 1 in H. destruct (look ops 1 s) as [[u s1]| | |] eqn:EL; try discriminate.
    pose proof (Fr_look ops 1 _ _ _ EL) as (_ & _ & _ & _ & _ & F6 & _).
    unfold bind at 1, get at 1 in H. rewrite F6, ESS in H. cbn [negb] in H.
    unfold fetch_stream_start, bind, get, put in H. inversion H; subst. reflexivity.
Qed.

(* before StreamStart nothing is queued *)
Definition SSInv (s : st) : Prop := sc_stream_start s = true \/ (sc_tokens s = [] /\ sc_token_available s = false).

Lemma fetch_more_tokens_good : forall fuel (s s' : st) a, fetch_more_tokens ops F fuel s = Ok (a, s') ->
  fl s s' /\ (Good s -> Good s') /\ (sc_tokens s = [] -> sc_stream_start s' = true).
Proof.
  induction fuel as [|fuel IH]; intros s s' a H; cbn [fetch_more_tokens] in H; [discriminate|].
  unfold bind at 1, get at 1 in H. unfold bind at 1 in H.
  match type of H with match ?m s with _ => _ end = _ => destruct (m s) as [[need s1]| | |] eqn:EN; try discriminate end.
  assert (X : fl s s1 /\ (Good s -> Good s1 /\ (Fin s1 -> need = false) /\ (need = true -> NoSE s1))
              /\ (sc_tokens s = [] -> need = true)).
  { destruct (sc_tokens s) as [|t0 r0] eqn:ET.
    - inversion EN; subst. split; [apply fl_refl|]. split; [|reflexivity]. intros HG. repeat split; auto.
      + intros (_ & l & E & _). rewrite ET in E. destruct l; discriminate.
      + intros _ t Ht. rewrite ET in Ht. destruct Ht.
    - unfold bind at 1 in EN. destruct (stale_simple_keys s) as [[u s2]| | |] eqn:ES; try discriminate.
      destruct (stale_simple_keys_sm _ _ _ ES) as (M2 & T2 & SE2 & TP2 & C2).
      pose proof (Keeps_stale_simple_keys _ _ _ ES) as [_ FL2].
      unfold bind, get, ret in EN. inversion EN; subst s1 need. clear EN. split; [exact FL2|]. split; [|discriminate].
      intros HG.
      assert (G2 : Good s2).
      { destruct HG as [HN|(C & l & E & NL)]; [left; intros t Ht; rewrite T2 in Ht; apply HN, Ht|].
        right. split; [apply C2, C|]. exists l. rewrite T2, M2. auto. }
      repeat split; auto.
      + intros (C & _). apply allclr_existsb. exact C.
      + intros EX. destruct G2 as [HN|(C & _)]; [exact HN|]. rewrite (allclr_existsb _ _ C) in EX. discriminate. }
  destruct X as (FL1 & G1 & NE). destruct need.
  - unfold bind at 1 in H. destruct (fetch_next_token ops F s1) as [[u s2]| | |] eqn:EF; try discriminate.
    destruct (FN_fetch_next_token _ _ _ EF) as [FL2 G2]. pose proof (fetch_next_token_ss _ _ _ EF) as SS2.
    destruct (IH _ _ _ H) as (FL3 & G3 & _). split; [eapply fl_trans; [exact FL1|]; eapply fl_trans; eauto|]. split.
    + intros HG. destruct (G1 HG) as (_ & _ & NT). apply G3, G2, NT. reflexivity.
    + intros _. apply FL3, SS2.
  - unfold modify in H. inversion H; subst. split; [eapply fl_trans; [exact FL1|split; [reflexivity|intro X; exact X]]|]. split.
    + intros HG. destruct (G1 HG) as ([HN|(C & l & E & NL)] & _); [left; exact HN|right]. split; [exact C|]. exists l. cbn. auto.
    + intros ET. specialize (NE ET). discriminate.
Qed.

(* next_token: the stream-end flag is set exactly when the token handed out is StreamEnd, and the StreamEnd token
   sits at the scanner's mark; StreamStart has been produced once a token has been handed out *)
Theorem next_token_se (s s' : st) t : SEInv s -> SSInv s -> next_token ops F s = Ok (Some t, s') ->
  sc_stream_end s = false /\ SEInv s' /\ sc_stream_start s' = true /\
  (if is_se (snd t) then sc_stream_end s' = true /\ fst t = span_empty (sc_mark s') else sc_stream_end s' = false).
Proof.
  intros HI HSS H. unfold next_token in H. unfold bind at 1, get at 1 in H.
  destruct (sc_stream_end s) eqn:SE; [inversion H|]. split; [reflexivity|]. specialize (HI SE).
  unfold bind at 1 in H.
  match type of H with match ?m s with _ => _ end = _ => destruct (m s) as [[u s1]| | |] eqn:EM; try discriminate end.
  assert (G1 : Good s1 /\ sc_stream_end s1 = false /\ sc_stream_start s1 = true).
  { destruct (sc_token_available s) eqn:TA.
    - inversion EM; subst. repeat split; auto. destruct HSS as [X|[_ X]]; [exact X|congruence].
    - destruct (fetch_more_tokens_good _ _ _ _ EM) as ([A1 A2] & B & C). repeat split; [apply B, HI|congruence|].
      destruct HSS as [X|[X _]]; [apply A2, X|apply C, X]. }
  destruct G1 as (G1 & SE1 & SS1). unfold bind at 1, get at 1 in H.
  destruct (sc_tokens s1) as [|t1 r] eqn:ET; [discriminate|].
  unfold bind at 1, put at 1 in H. unfold bind at 1 in H.
  set (s2 := set_tp (sc_tokens_parsed s1 + 1) (set_ta false (set_tokens r s1))) in *.
  assert (B2 : sc_tokens s2 = r /\ sc_mark s2 = sc_mark s1 /\ sc_sks s2 = sc_sks s1 /\ sc_stream_end s2 = false
               /\ sc_stream_start s2 = true).
  { subst s2. cbn. auto. }
  clearbody s2. destruct B2 as (T2 & M2 & K2 & SE2 & SS2).
  destruct G1 as [HN|(C & l & E & NL)].
  - assert (Ht1 : is_se (snd t1) = false) by (apply HN; rewrite ET; left; reflexivity).
    assert (HS : s' = s2 /\ t = t1).
    { destruct t1 as [sp tk]. cbn [snd] in *. destruct tk; try discriminate Ht1; unfold ret in H; inversion H; auto. }
    destruct HS as [-> ->]. rewrite Ht1. split; [|split; [exact SS2|exact SE2]]. intros _. left. intros w Hw. rewrite T2 in Hw. apply HN. rewrite ET. right. exact Hw.
  - rewrite ET in E. destruct l as [|t0 l].
    + cbn [app] in E. injection E as E1 E2. subst t1. cbn [snd] in H. unfold modify, ret in H. inversion H; subst s' t. cbn [snd fst is_se].
      split; [intros X; cbn in X; congruence|]. split; [exact SS2|]. split; [reflexivity|]. cbn. rewrite M2. reflexivity.
    + cbn [app] in E. injection E as E1 E2. subst t0. rewrite E2 in T2.
      assert (Ht1 : is_se (snd t1) = false) by (apply NL; left; reflexivity).
      assert (HS : s' = s2 /\ t = t1).
      { destruct t1 as [sp tk]. cbn [snd] in *. destruct tk; try discriminate Ht1; unfold ret in H; inversion H; auto. }
      destruct HS as [-> ->]. rewrite Ht1. split; [|split; [exact SS2|exact SE2]]. intros _. right. split; [rewrite K2; exact C|].
      exists l. rewrite T2, M2. split; [reflexivity|]. intros w Hw. apply NL. right. exact Hw.
Qed.

Lemma next_token_none (s s' : st) : next_token ops F s = Ok (None, s') -> sc_stream_end s = true /\ s' = s.
Proof.
  unfold next_token. unfold bind at 1, get at 1. destruct (sc_stream_end s); [intros H; inversion H; auto|].
  unfold bind at 1. match goal with |- match ?m s with _ => _ end = _ -> _ => destruct (m s) as [[u s1]| | |]; try discriminate end.
  unfold bind at 1, get at 1. destruct (sc_tokens s1); [discriminate|]. unfold bind at 1, put at 1. unfold bind at 1.
  destruct (snd t); unfold ret, modify; discriminate.
Qed.

Lemma SEInv_init (i : I) : SEInv (init_sc i).
Proof. intros _. left. intros t Ht. destruct Ht. Qed.
Lemma SSInv_init (i : I) : SSInv (init_sc i).
Proof. right. split; reflexivity. Qed.

End Top.
