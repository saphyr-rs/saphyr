(* C15, parser half, ingredient (A) of Proofs/DocIndep.v.

   Two parsers that differ only in the tail of their token streams — one ends with a StreamEnd token [se], the other
   continues with a DocumentEnd token [de] and arbitrary tokens [rest] — do the same thing step by step ([sim_step]:
   same event; the span may differ when the event is derived from the final token), until the first one emits
   StreamEnd.  At that point the second one is about to start the document(s) of [rest] from the boundary parser
   [pB]: empty anchor table, empty tag table, document-start state.

   The parser never tells StreamEnd from DocumentEnd except in the three document-level state functions, which is why
   the simulation goes through; the state [SFlowSequenceEntryMappingEnd m] stores a marker taken from a token span, so
   states are compared up to that marker ([st_eq]). *)
From Coq Require Import List NArith Bool Lia.
Import ListNotations.
Require Import Parser ParserView C02base C02rest DocReset DocShift.
Local Open Scope N_scope.

Section Sim.
Variables sps spd : span.
Variable rest : list token.
Notation se := (sps, TStreamEnd).
Notation de := (spd, TDocumentEnd).

Definition nonSE (t : token) : Prop := snd t <> TStreamEnd.
Definition okst (s : pstate) : Prop := s <> SStreamStart /\ s <> SImplicitDocumentStart /\ s <> SDocumentStart /\ s <> SEnd.
Definition st_eq (s1 s2 : pstate) : Prop :=
  match s1 with
  | SFlowSequenceEntryMappingEnd _ => exists m, s2 = SFlowSequenceEntryMappingEnd m
  | _ => s2 = s1
  end.
Lemma st_eq_refl s : st_eq s s.
Proof. destruct s; cbn; eauto. Qed.
Lemma st_eq_fsem m1 m2 : st_eq (SFlowSequenceEntryMappingEnd m1) (SFlowSequenceEntryMappingEnd m2).
Proof. cbn. eauto. Qed.

Inductive phase (p1 p2 : parser) : Prop :=
| PhBody l : p_token p2 = p_token p1 -> (forall t, p_token p1 = Some t -> nonSE t) -> Forall nonSE l ->
             p_toks p1 = l ++ [se] -> p_toks p2 = l ++ de :: rest -> phase p1 p2
| PhEnd : p_token p1 = Some se -> p_token p2 = Some de -> p_toks p1 = [] -> p_toks p2 = rest -> phase p1 p2
| PhPast : p_token p1 = None -> p_token p2 = None -> p_toks p1 = [] -> p_toks p2 = rest -> phase p1 p2.

Definition R (p1 p2 : parser) : Prop :=
  st_eq (p_state p1) (p_state p2) /\ Forall2 st_eq (p_states p1) (p_states p2)
  /\ p_anchors p2 = p_anchors p1 /\ p_anchor_id p2 = p_anchor_id p1 /\ p_tags p2 = p_tags p1
  /\ p_keep_tags p1 = false /\ p_keep_tags p2 = false
  /\ phase p1 p2 /\ Forall okst (p_states p1).

(* what the first parser knows in the document-level states *)
Definition DL (p : parser) : Prop :=
  p_state p <> SEnd /\
  match p_state p with
  | SStreamStart | SImplicitDocumentStart => p_anchors p = [] /\ p_tags p = []
  | SDocumentStart => p_anchors p = [] /\ p_tags p = []
                      /\ exists t, p_token p = Some t /\ snd t <> TDocumentEnd /\ snd t <> TStreamEnd
  | _ => True
  end.
Lemma DL_okst p : okst (p_state p) -> DL p.
Proof. unfold DL, okst. destruct (p_state p); intros (A & B & C & D); (split; [try discriminate; congruence|]); try exact I; congruence. Qed.

Definition RR (r1 r2 : res ((event * span) * parser)) : Prop :=
  forall e sp q1, r1 = Ok ((e, sp), q1) -> exists sp' q2, r2 = Ok ((e, sp'), q2) /\ R q1 q2 /\ DL q1.
Lemma RR_elim r1 r2 e sp q1 :
  RR r1 r2 -> r1 = Ok ((e, sp), q1) -> exists sp' q2, r2 = Ok ((e, sp'), q2) /\ R q1 q2 /\ DL q1.
Proof. intros H. apply H. Qed.
Lemma RR_err e r2 : RR (Err e) r2.
Proof. intros ? ? ? H; discriminate. Qed.
Lemma RR_panic n r2 : RR (Panic n) r2.
Proof. intros ? ? ? H; discriminate. Qed.
Lemma RR_ok e sp1 sp2 q1 q2 : R q1 q2 -> DL q1 -> RR (Ok ((e, sp1), q1)) (Ok ((e, sp2), q2)).
Proof. intros HR HD e0 sp0 q0 H. inversion H; subst. eauto. Qed.

(* primitives *)
Lemma R_set_state q1 q2 s1 s2 : R q1 q2 -> st_eq s1 s2 -> R (set_state q1 s1) (set_state q2 s2).
Proof.
  intros (A & B & C & D & E & G & H & P & K) HS. unfold R; cbn. repeat split; auto.
  destruct P as [l P1 P2 P3 P4 P5|P1 P2 P3 P4|P1 P2 P3 P4]; [eapply PhBody|apply PhEnd|apply PhPast]; cbn; eauto.
Qed.
Lemma R_push_state q1 q2 s1 s2 : R q1 q2 -> st_eq s1 s2 -> okst s1 -> R (push_state q1 s1) (push_state q2 s2).
Proof.
  intros (A & B & C & D & E & G & H & P & K) HS HO. unfold R; cbn. repeat split; auto.
  destruct P as [l P1 P2 P3 P4 P5|P1 P2 P3 P4|P1 P2 P3 P4]; [eapply PhBody|apply PhEnd|apply PhPast]; cbn; eauto.
Qed.
Lemma R_skip q1 q2 : R q1 q2 -> R (skip q1) (skip q2).
Proof.
  intros (A & B & C & D & E & G & H & P & K). unfold R; cbn. repeat split; auto.
  destruct P as [l P1 P2 P3 P4 P5|P1 P2 P3 P4|P1 P2 P3 P4].
  - eapply PhBody; cbn; eauto. intros t Ht; discriminate.
  - apply PhPast; cbn; auto.
  - apply PhPast; cbn; auto.
Qed.
Lemma R_set_tags q1 q2 t : R q1 q2 -> R (set_tags q1 t) (set_tags q2 t).
Proof.
  intros (A & B & C & D & E & G & H & P & K). unfold R; cbn. repeat split; auto.
  destruct P as [l P1 P2 P3 P4 P5|P1 P2 P3 P4|P1 P2 P3 P4]; [eapply PhBody|apply PhEnd|apply PhPast]; cbn; eauto.
Qed.
Lemma R_set_anchors q1 q2 a n : R q1 q2 -> R (set_anchors q1 a n) (set_anchors q2 a n).
Proof.
  intros (A & B & C & D & E & G & H & P & K). unfold R; cbn. repeat split; auto.
  destruct P as [l P1 P2 P3 P4 P5|P1 P2 P3 P4|P1 P2 P3 P4]; [eapply PhBody|apply PhEnd|apply PhPast]; cbn; eauto.
Qed.
Lemma R_register_anchor q1 q2 name :
  R q1 q2 -> fst (register_anchor q2 name) = fst (register_anchor q1 name)
             /\ R (snd (register_anchor q1 name)) (snd (register_anchor q2 name)).
Proof.
  intros HR. pose proof HR as (A & B & C & D & E & G & H & P & K). unfold register_anchor; cbn [fst snd].
  split; [exact D|]. rewrite C, D. apply R_set_anchors. exact HR.
Qed.
Lemma R_resolve_tag q1 q2 m h s : R q1 q2 -> resolve_tag q2 m h s = resolve_tag q1 m h s.
Proof. intros (A & B & C & D & E & _). unfold resolve_tag. rewrite E. reflexivity. Qed.

Lemma R_pop q1 q2 q1' : R q1 q2 -> pop_state q1 = Ok q1' ->
  exists q2', pop_state q2 = Ok q2' /\ R q1' q2' /\ okst (p_state q1').
Proof.
  intros (A & B & C & D & E & G & H & P & K). unfold pop_state.
  destruct (p_states q1) as [|s1 r1] eqn:E1; [discriminate|]. intros X; inversion X; subst; clear X.
  inversion B as [|? s2 ? r2 HS HB E2 E3]; subst. eexists; split; [reflexivity|].
  inversion K; subst. split; [|cbn; assumption].
  unfold R; cbn. repeat split; auto.
  destruct P as [l P1 P2 P3 P4 P5|P1 P2 P3 P4|P1 P2 P3 P4]; [eapply PhBody|apply PhEnd|apply PhPast]; cbn; eauto.
Qed.

(* the two parsers read the same token, or the final tokens of their streams *)
Definition tsim (t1 t2 : token) : Prop := (t2 = t1 /\ nonSE t1) \/ (t1 = se /\ t2 = de).

(* a question about the kind that does not tell StreamEnd from DocumentEnd has one answer on both sides *)
Lemma tsim_kind sp1 k1 sp2 k2 : tsim (sp1, k1) (sp2, k2) ->
  forall (A : Type) (f : tok -> A), f TStreamEnd = f TDocumentEnd -> f k2 = f k1.
Proof.
  intros [[E _]|[E1 E2]] A f Hf.
  - inversion E. reflexivity.
  - inversion E1. inversion E2. symmetry. exact Hf.
Qed.

Lemma peek_R p1 p2 t1 q1 : R p1 p2 -> peek p1 = Ok (t1, q1) ->
  exists t2 q2, peek p2 = Ok (t2, q2) /\ R q1 q2 /\ p_state q1 = p_state p1 /\ p_token q1 = Some t1
                /\ p_token q2 = Some t2 /\ tsim t1 t2.
Proof.
  intros HR. unfold tsim. pose proof HR as (A & B & C & D & E & G & H & P & K). unfold peek.
  destruct P as [l P1 P2 P3 P4 P5|P1 P2 P3 P4|P1 P2 P3 P4].
  - rewrite P1. destruct (p_token p1) as [t|] eqn:ET.
    + intros X; inversion X; subst. exists t1, p2.
      split; [reflexivity|]. split; [exact HR|]. split; [reflexivity|]. split; [exact ET|]. split; [exact P1|].
      left. split; [reflexivity|apply P2; reflexivity].
    + rewrite P4, P5. destruct l as [|t l']; cbn [app]; intros X; inversion X; subst; clear X.
      * exists de, (set_tok p2 rest (Some de)).
        split; [reflexivity|]. split; [|split; [reflexivity|split; [reflexivity|split; [reflexivity|right; auto]]]].
        unfold R; cbn. repeat split; auto. apply PhEnd; reflexivity.
      * inversion P3; subst. exists t1, (set_tok p2 (l' ++ de :: rest) (Some t1)).
        split; [reflexivity|]. split; [|split; [reflexivity|split; [reflexivity|split; [reflexivity|left; auto]]]].
        unfold R; cbn. repeat split; auto. eapply PhBody; cbn; eauto. intros t Ht; inversion Ht; subst; assumption.
  - rewrite P1, P2. intros X; inversion X; subst. exists de, p2.
    split; [reflexivity|]. split; [exact HR|]. split; [reflexivity|]. split; [exact P1|]. split; [exact P2|]. right; auto.
  - rewrite P1, P3. discriminate.
Qed.

Lemma R_toks_len p1 p2 : R p1 p2 -> (length (p_toks p1) <= length (p_toks p2))%nat.
Proof.
  intros (_ & _ & _ & _ & _ & _ & _ & P & _).
  destruct P as [l P1 P2 P3 P4 P5|P1 P2 P3 P4|P1 P2 P3 P4]; rewrite ?P3, ?P4, ?P5, ?app_length; cbn; lia.
Qed.

(* tactics *)
Ltac st_eq_tac := first [apply st_eq_refl | apply st_eq_fsem].
Ltac okst_tac := first [assumption | unfold okst; repeat split; discriminate].
Ltac solveR1 :=
  match goal with
  | H : R ?a ?b |- R ?a ?b => exact H
  | |- R (skip _) (skip _) => apply R_skip
  | |- R (set_state _ _) (set_state _ _) => apply R_set_state; [|st_eq_tac]
  | |- R (push_state _ _) (push_state _ _) => apply R_push_state; [|st_eq_tac|okst_tac]
  | |- R (set_tags _ _) (set_tags _ _) => apply R_set_tags
  | |- R (set_anchors _ _ _) (set_anchors _ _ _) => apply R_set_anchors
  end.
Ltac solveR := repeat solveR1.
Ltac dl_tac := first [apply DL_okst; assumption | (unfold DL; cbn; split; [discriminate|exact I])].

(* One peek on both sides.  The kinds [k1], [k2] of the two tokens stay variables; whatever the second side asks of
   [k2] by [tis] or [tin] is turned at once into the same question about [k1], so that from here on both sides
   branch on the same tests. *)
Ltac same_tests Hc :=
  rewrite ?(fun c => tsim_kind _ _ _ _ Hc _ (tis c)), ?(fun l => tsim_kind _ _ _ _ Hc _ (tin l)) by reflexivity.
Ltac rpeek :=
  lazymatch goal with |- RR ?X ?Y =>
    match X with context [peek ?a] =>
    match Y with context [peek ?b] =>
      first
      [ match goal with Ht1 : p_token a = Some ?t1, Ht2 : p_token b = Some ?t2, Hc : tsim ?t1 ?t2 |- _ =>
          rewrite (peek_cached a t1 Ht1), (peek_cached b t2 Ht2); cbn [fst snd]; same_tests Hc
        end
      | let HR := fresh "HR" in let E1 := fresh "E" in let E2 := fresh "E" in
        let sp1 := fresh "sp" in let k1 := fresh "k" in let q1 := fresh "q" in
        let sp2 := fresh "sp" in let k2 := fresh "k" in let q2 := fresh "q" in
        let Hs := fresh "Hs" in let Ht := fresh "Ht" in let Ht' := fresh "Ht" in let Hc := fresh "Hc" in
        assert (HR : R a b) by solveR;
        destruct (peek a) as [[[sp1 k1] q1]| |] eqn:E1; [|cbv beta iota; apply RR_err|cbv beta iota; apply RR_panic];
        destruct (peek_R _ _ _ _ HR E1) as ([sp2 k2] & q2 & E2 & ? & Hs & Ht & Ht' & Hc); rewrite E2; clear E2;
        cbn [fst snd]; same_tests Hc ]
    end end
  end.
Ltac rleaf := apply RR_ok; [solveR|dl_tac].

Lemma RR_pop q1 q2 e sp1 sp2 (k : parser -> parser) :
  R q1 q2 -> (forall a b, R a b -> R (k a) (k b)) -> (forall a, p_state (k a) = p_state a) ->
  RR (do p <- pop_state q1; Ok ((e, sp1), k p)) (do p <- pop_state q2; Ok ((e, sp2), k p)).
Proof.
  intros HR Hk Hs. destruct (pop_state q1) as [q1'| |] eqn:E; [|apply RR_err|apply RR_panic].
  destruct (R_pop _ _ _ HR E) as (q2' & -> & HR' & HO). apply RR_ok; [apply Hk; exact HR'|].
  apply DL_okst. rewrite Hs. exact HO.
Qed.
Ltac rpop :=
  first [ apply (RR_pop _ _ _ _ _ (fun p => p)); [solveR|auto|auto]
        | apply (RR_pop _ _ _ _ _ skip); [solveR|exact R_skip|reflexivity] ].

(* parse_node *)
Lemma empty_or_err_R q1 q2 aid tg sp1 sp2 : R q1 q2 -> RR (empty_or_err q1 aid tg sp1) (empty_or_err q2 aid tg sp2).
Proof. intros HR. unfold empty_or_err. destruct (has_props aid tg); [rpop|apply RR_err]. Qed.

Lemma node_content_R q1 q2 aid tg b i : R q1 q2 -> RR (node_content q1 aid tg b i) (node_content q2 aid tg b i).
Proof.
  intros HR. rewrite !node_content_if. rpeek. rewrite (tsim_kind _ _ _ _ Hc _ as_scalar eq_refl).
  destruct (as_scalar k) as [[st v]|]; [rpop|].
  destruct (tis TBlockEntry k); [destruct i; [rleaf|apply empty_or_err_R; assumption]|].
  destruct (tis TFlowSequenceStart k); [rleaf|].
  destruct (tis TFlowMappingStart k); [rleaf|].
  destruct (tis TBlockSequenceStart k && b); [rleaf|].
  destruct (tis TBlockMappingStart k && b); [rleaf|].
  apply empty_or_err_R. assumption.
Qed.

Definition RP (r1 r2 : res (N * option tag * parser)) : Prop :=
  forall aid tg q1, r1 = Ok (aid, tg, q1) -> exists q2, r2 = Ok (aid, tg, q2) /\ R q1 q2.

Ltac rp_leaf := intros ?aid ?tg ?q ?H; first [discriminate | match goal with H : _ = Ok _ |- _ => inversion H; subst end; eexists; split; [reflexivity|solveR]].
Lemma node_props_R q1 q2 t1 t2 : R q1 q2 -> tsim t1 t2 -> RP (node_props q1 t1) (node_props q2 t2).
Proof.
  intros HR [[-> Hn]|[-> ->]]; [|rp_leaf].
  rewrite !node_props_if. destruct t1 as [sp k]. cbn [fst snd].
  destruct (as_anchor k) as [name|]; [|destruct (as_tag k) as [[h s]|]; [|rp_leaf]]; cbv zeta.
  - destruct (R_register_anchor _ _ name (R_skip _ _ HR)) as [EF ER].
    destruct (register_anchor (skip q1) name) as [id1 r1]. destruct (register_anchor (skip q2) name) as [id2 r2].
    cbn [fst snd] in EF, ER. subst id2.
    destruct (peek r1) as [[[sp1 k1] r1']| |] eqn:E1; [|rp_leaf..].
    destruct (peek_R _ _ _ _ ER E1) as ([sp2 k2] & r2' & -> & HR' & _ & _ & _ & Hc). cbn [fst snd].
    rewrite (tsim_kind _ _ _ _ Hc _ as_tag eq_refl). destruct (as_tag k1) as [[h s]|]; [|rp_leaf]. cbv zeta.
    rewrite (R_resolve_tag _ _ _ _ _ (R_skip _ _ HR')).
    destruct (resolve_tag (skip r1') (sp_start sp) h s); rp_leaf.
  - rewrite (R_resolve_tag _ _ _ _ _ (R_skip _ _ HR)).
    destruct (resolve_tag (skip q1) (sp_start sp) h s) as [tg0| |]; [|rp_leaf..].
    destruct (peek (skip q1)) as [[[sp1 k1] r1']| |] eqn:E1; [|rp_leaf..].
    destruct (peek_R _ _ _ _ (R_skip _ _ HR) E1) as ([sp2 k2] & r2' & -> & HR' & _ & _ & _ & Hc). cbn [fst snd].
    rewrite (tsim_kind _ _ _ _ Hc _ as_anchor eq_refl). destruct (as_anchor k1) as [name|]; [|rp_leaf]. cbv zeta.
    destruct (R_register_anchor _ _ name (R_skip _ _ HR')) as [EF ER].
    destruct (register_anchor (skip r1') name) as [id1 x1]. destruct (register_anchor (skip r2') name) as [id2 x2].
    cbn [fst snd] in EF, ER. subst id2. rp_leaf.
Qed.

Lemma parse_node_R q1 q2 b i : R q1 q2 -> RR (parse_node q1 b i) (parse_node q2 b i).
Proof.
  intros HR0. rewrite !parse_node_if.
  destruct (peek q1) as [[[sp1 k1] r1]| |] eqn:E1; [|apply RR_err|apply RR_panic].
  destruct (peek_R _ _ _ _ HR0 E1) as ([sp2 k2] & r2 & -> & HR & _ & _ & _ & Hc). cbn [fst snd].
  rewrite (tsim_kind _ _ _ _ Hc _ as_alias eq_refl). destruct (as_alias k1) as [name|].
  - destruct (pop_state r1) as [x1| |] eqn:EP; [|apply RR_err|apply RR_panic].
    destruct (R_pop _ _ _ HR EP) as (x2 & -> & HX & HO).
    pose proof HX as (_ & _ & EA & _). cbn [p_anchors skip set_tok]. rewrite EA.
    destruct (assoc name (p_anchors x1)); [|apply RR_err]. apply RR_ok; [apply R_skip; exact HX|apply DL_okst; exact HO].
  - pose proof (node_props_R _ _ _ _ HR Hc) as HP.
    destruct (node_props r1 (sp1, k1)) as [[[aid tg] x1]| |]; [|apply RR_err|apply RR_panic].
    destruct (HP _ _ _ eq_refl) as (x2 & -> & HX). apply node_content_R. exact HX.
Qed.

Lemma node_or_empty_R l q1 q2 st b i : tin l TStreamEnd = tin l TDocumentEnd -> R q1 q2 -> okst st ->
  RR (node_or_empty l q1 st b i) (node_or_empty l q2 st b i).
Proof.
  intros Hl HR HO. unfold node_or_empty. rpeek. rewrite (tsim_kind _ _ _ _ Hc _ (tin l) Hl).
  destruct (tin l k); [rleaf|apply parse_node_R; solveR].
Qed.

(* one step of a walk, chosen by the head of the left side; a test is decided for both sides at once *)
Ltac rauto1 :=
  lazymatch goal with
  | |- RR (Ok _) (Ok _) => rleaf
  | |- RR (Err _) _ => apply RR_err
  | |- RR (parse_node _ _ _) (parse_node _ _ _) => apply parse_node_R; solveR
  | |- RR (node_or_empty _ _ _ _ _) (node_or_empty _ _ _ _ _) => apply node_or_empty_R; [reflexivity|solveR|okst_tac]
  | |- RR (match pop_state _ with _ => _ end) _ => rpop
  | |- RR ?X _ =>
    lazymatch X with
    | context [if tis ?c ?k then _ else _] => destruct (tis c k)
    | context [if tin ?l ?k then _ else _] => destruct (tin l k)
    | _ => rpeek
    end
  end.
Ltac rauto := repeat rauto1.

Lemma block_mapping_key_R p1 p2 first : R p1 p2 -> RR (block_mapping_key p1 first) (block_mapping_key p2 first).
Proof. intros HR. rewrite !block_mapping_key_if. destruct first; rauto. Qed.
Lemma block_mapping_value_R p1 p2 : R p1 p2 -> RR (block_mapping_value p1) (block_mapping_value p2).
Proof. intros HR. rewrite !block_mapping_value_if. rauto. Qed.
Lemma flow_mapping_key_R p1 p2 first : R p1 p2 -> RR (flow_mapping_key p1 first) (flow_mapping_key p2 first).
Proof. intros HR. rewrite !flow_mapping_key_if. destruct first; rauto. Qed.
Lemma flow_mapping_value_R p1 p2 empty : R p1 p2 -> RR (flow_mapping_value p1 empty) (flow_mapping_value p2 empty).
Proof. intros HR. rewrite !flow_mapping_value_if. destruct empty; rauto. Qed.
Lemma flow_sequence_entry_R p1 p2 first : R p1 p2 -> RR (flow_sequence_entry p1 first) (flow_sequence_entry p2 first).
Proof. intros HR. rewrite !flow_sequence_entry_if. destruct first; rauto. Qed.
Lemma indentless_sequence_entry_R p1 p2 : R p1 p2 -> RR (indentless_sequence_entry p1) (indentless_sequence_entry p2).
Proof. intros HR. rewrite !indentless_sequence_entry_if. rauto. Qed.
Lemma block_sequence_entry_R p1 p2 first : R p1 p2 -> RR (block_sequence_entry p1 first) (block_sequence_entry p2 first).
Proof. intros HR. rewrite !block_sequence_entry_if. destruct first; rauto. Qed.
Lemma fsem_key_R p1 p2 : R p1 p2 -> RR (flow_sequence_entry_mapping_key p1) (flow_sequence_entry_mapping_key p2).
Proof. intros HR. rewrite !flow_sequence_entry_mapping_key_if. rauto. Qed.
Lemma fsem_value_R p1 p2 : R p1 p2 -> RR (flow_sequence_entry_mapping_value p1) (flow_sequence_entry_mapping_value p2).
Proof. intros HR. rewrite !flow_sequence_entry_mapping_value_if. rauto. Qed.
Lemma stream_start_R p1 p2 : R p1 p2 -> DL p1 -> p_state p1 = SStreamStart -> RR (stream_start p1) (stream_start p2).
Proof.
  intros HR HD ES. unfold stream_start. rpeek. destruct k; try apply RR_err.
  destruct Hc as [[[= -> ->] _]|[[=] _]].
  apply RR_ok; [solveR|]. unfold DL in *. rewrite ES in HD. cbn. split; [discriminate|].
  apply peek_other_fields in E. destruct E as (EA & ET & _). rewrite EA, ET. apply HD.
Qed.


(* the document-level states: here StreamEnd and DocumentEnd differ *)
Definition restp (p : parser) : parser := set_tok p rest None.
(* the parser at the boundary: about to start the documents of [rest] with nothing left of the earlier ones *)
Definition pB (stk : list pstate) (n : N) : parser :=
  {| p_toks := rest; p_token := None; p_states := stk; p_state := SImplicitDocumentStart;
     p_anchors := []; p_anchor_id := n; p_tags := []; p_keep_tags := false |}.

Lemma restp_peek p t q : peek p = Ok (t, q) -> restp q = restp p.
Proof.
  unfold peek. destruct (p_token p); [intros H; inversion H; reflexivity|].
  destruct (p_toks p); [discriminate|]. intros H; inversion H; reflexivity.
Qed.

Lemma process_directives_R f1 : forall p1 p2 vs tags q1 f2,
  R p1 p2 -> process_directives f1 p1 vs tags = Ok q1 -> (f1 <= f2)%nat ->
  exists q2, process_directives f2 p2 vs tags = Ok q2 /\ R q1 q2 /\ p_state q1 = p_state p1.
Proof.
  induction f1 as [|f1 IH]; intros p1 p2 vs tags q1 f2 HR H Hf; [discriminate|].
  destruct f2 as [|f2]; [lia|]. cbn [process_directives] in *.
  destruct (peek p1) as [[t1 x1]| |] eqn:E1; try discriminate.
  destruct (peek_R _ _ _ _ HR E1) as (t2 & x2 & -> & HX & Hs & _ & _ & Hc).
  assert (ET : p_tags x2 = p_tags x1) by apply HX.
  destruct Hc as [[-> Hn]|[-> ->]].
  - destruct t1 as [sp tk]. destruct tk;
      try (inversion H; subst; eexists; split; [rewrite ET; reflexivity|split; [apply R_set_tags; exact HX|exact Hs]]).
    + destruct vs; [discriminate|]. destruct (IH _ _ _ _ _ f2 (R_skip _ _ HX) H ltac:(lia)) as (q2 & E & HQ & HS).
      exists q2. split; [exact E|]. split; [exact HQ|]. rewrite HS. exact Hs.
    + destruct (_ && _); [discriminate|]. destruct (IH _ _ _ _ _ f2 (R_skip _ _ HX) H ltac:(lia)) as (q2 & E & HQ & HS).
      exists q2. split; [exact E|]. split; [exact HQ|]. rewrite HS. exact Hs.
  - inversion H; subst. eexists; split; [rewrite ET; reflexivity|split; [apply R_set_tags; exact HX|exact Hs]].
Qed.

Lemma sde_fuel f : forall f' p, (tmeasure p < f)%nat -> (tmeasure p < f')%nat ->
  skip_document_ends f p = skip_document_ends f' p.
Proof.
  induction f as [|f IH]; intros f' p H H'; [lia|]. destruct f' as [|f']; [lia|]. rewrite !skip_document_ends_if.
  destruct (peek p) as [[t q]| |] eqn:E; try reflexivity. destruct (tis TDocumentEnd (snd t)); [|reflexivity].
  pose proof (peek_measure _ _ _ E) as [M T]. pose proof (skip_measure q _ T). apply IH; lia.
Qed.

Lemma sde_R f1 : forall p1 p2 q1 f2,
  R p1 p2 -> skip_document_ends f1 p1 = Ok q1 -> (tmeasure p2 < f2)%nat ->
  (exists q2, skip_document_ends f2 p2 = Ok q2 /\ R q1 q2 /\ p_state q1 = p_state p1
              /\ exists t, p_token q1 = Some t /\ p_token q2 = Some t /\ nonSE t /\ snd t <> TDocumentEnd)
  \/ (p_token q1 = Some se /\ p_state q1 = p_state p1 /\ p_anchor_id q1 = p_anchor_id p1
      /\ exists f2', skip_document_ends f2 p2 = skip_document_ends f2' (restp p2) /\ (length rest < f2')%nat).
Proof.
  induction f1 as [|f1 IH]; intros p1 p2 q1 f2 HR H Hf; [discriminate|].
  destruct f2 as [|f2]; [lia|]. rewrite skip_document_ends_if in *.
  destruct (peek p1) as [[t1 x1]| |] eqn:E1; try discriminate.
  destruct (peek_R _ _ _ _ HR E1) as (t2 & x2 & E2 & HX & Hs & Ht & Ht' & Hc). rewrite E2.
  pose proof (peek_measure _ _ _ E2) as [M2 T2]. pose proof (peek_other_fields _ _ _ E1) as (_ & _ & EI & _).
  destruct Hc as [[-> Hn]|[-> ->]].
  - destruct (tis TDocumentEnd (snd t1)) eqn:EK.
    + (* a DocumentEnd token of the first stream: skipped on both sides *)
      pose proof (skip_measure x2 _ T2) as M3.
      destruct (IH _ _ _ f2 (R_skip _ _ HX) H ltac:(lia)) as [(q2 & E & HQ & HS & HT)|(A1 & A2 & A3 & f2' & A4 & A5)].
      * left. exists q2. split; [exact E|]. split; [exact HQ|]. split; [rewrite HS; exact Hs|exact HT].
      * right. split; [exact A1|]. split; [rewrite A2; exact Hs|]. split; [rewrite A3; exact EI|].
        exists f2'. split; [|exact A5]. rewrite A4. f_equal.
        transitivity (restp x2); [reflexivity|apply (restp_peek _ _ _ E2)].
    + inversion H; subst. left. exists x2. split; [reflexivity|]. split; [exact HX|]. split; [exact Hs|].
      eexists. split; [exact Ht|]. split; [exact Ht'|]. split; [exact Hn|]. intros E. rewrite E in EK. discriminate EK.
  - cbn [snd tis] in H |- *. inversion H; subst. right. split; [exact Ht|]. split; [exact Hs|]. split; [exact EI|].
    exists f2. split; [|].
    + f_equal. pose proof HX as (_ & _ & _ & _ & _ & _ & _ & P & _).
      destruct P as [l P1 P2 P3 P4 P5|P1 P2 P3 P4|P1 P2 P3 P4]; [|clear P1|congruence].
      * exfalso. apply (P2 _ Ht). reflexivity.
      * transitivity (restp x2); [unfold skip, restp; rewrite P4; reflexivity|apply (restp_peek _ _ _ E2)].
    + pose proof HX as (_ & _ & _ & _ & _ & _ & _ & P & _).
      destruct P as [l P1 P2 P3 P4 P5|P1 P2 P3 P4|P1 P2 P3 P4]; [exfalso; apply (P2 _ Ht); reflexivity| |congruence].
      unfold tmeasure in *. rewrite P4, P2 in M2. lia.
Qed.

Lemma sde_cached f p t : p_token p = Some t -> snd t <> TDocumentEnd -> skip_document_ends (S f) p = Ok p.
Proof.
  intros Ht Hn. rewrite skip_document_ends_if, (peek_cached _ _ Ht).
  destruct (tis TDocumentEnd (snd t)) eqn:EK; [|reflexivity]. destruct (Hn (tis_bare TDocumentEnd _ eq_refl EK)).
Qed.

Lemma explicit_document_start_R p1 p2 : R p1 p2 -> RR (explicit_document_start p1) (explicit_document_start p2).
Proof.
  intros HR. unfold explicit_document_start.
  destruct (process_directives _ p1 false []) as [x1| |] eqn:EP; [|apply RR_err|apply RR_panic].
  destruct (process_directives_R _ _ _ _ _ _ (S (S (length (p_toks p2)))) HR EP) as (x2 & -> & HX & _).
  { pose proof (R_toks_len _ _ HR). lia. }
  rpeek. destruct k; try apply RR_err. destruct Hc as [[[= -> ->] _]|[[=] _]]. rleaf.
Qed.

Lemma document_start_R p1 p2 imp e sp p1' :
  R p1 p2 ->
  (imp = false -> exists t, p_token p1 = Some t /\ snd t <> TDocumentEnd /\ snd t <> TStreamEnd) ->
  document_start p1 imp = Ok ((e, sp), p1') ->
  (exists sp' p2', document_start p2 imp = Ok ((e, sp'), p2') /\ R p1' p2' /\ DL p1')
  \/ (imp = true /\ e = EStreamEnd /\ sp = sps /\ p_state p1' = SEnd /\ p_anchor_id p1' = p_anchor_id p1
      /\ document_start p2 imp = document_start (restp p2) imp).
Proof.
  intros HR Himp. rewrite !document_start_if.
  destruct (skip_document_ends _ p1) as [x1| |] eqn:ES; try discriminate.
  destruct (sde_R _ _ _ _ (S (S (length (p_toks p2)))) HR ES (tmeasure_bound p2))
    as [(x2 & -> & HX & Hs & t & Ht1 & Ht2 & Hn & Hd)|(A1 & A2 & A3 & f2' & A4 & A5)].
  - (* the next token belongs to the first stream *)
    intros H. left. revert H. apply RR_elim.
    rewrite (peek_cached _ _ Ht1), (peek_cached _ _ Ht2). destruct t as [spt k].
    destruct (tis TStreamEnd k) eqn:EK; [exfalso; apply Hn; exact (tis_bare TStreamEnd k eq_refl EK)|].
    destruct (negb imp || tin _ k); [apply explicit_document_start_R; exact HX|].
    destruct (process_directives _ x1 false []) as [y1| |] eqn:EP; [|apply RR_err|apply RR_panic].
    destruct (process_directives_R _ _ _ _ _ _ (S (S (length (p_toks x2)))) HX EP) as (y2 & -> & HY & _).
    { pose proof (R_toks_len _ _ HX). lia. }
    rleaf.
  - (* the first stream is over *)
    assert (Ei : imp = true).
    { destruct imp; [reflexivity|]. destruct (Himp eq_refl) as (t & Ht & Hd & Hn).
      rewrite (sde_cached _ _ _ Ht Hd) in ES. inversion ES; subst. rewrite Ht in A1. inversion A1; subst. exfalso; apply Hn; reflexivity. }
    rewrite (peek_cached _ _ A1). cbn [tis]. intros H; inversion H; subst. right.
    split; [reflexivity|]. split; [reflexivity|]. split; [reflexivity|]. split; [reflexivity|]. split; [exact A3|]. rewrite A4.
    cbn [p_toks restp set_tok].
    rewrite (sde_fuel f2' (S (S (length rest))) (restp p2)); [reflexivity| |]; unfold tmeasure; cbn; lia.
Qed.

Lemma document_content_R p1 p2 : R p1 p2 -> RR (document_content p1) (document_content p2).
Proof. intros HR. rewrite !document_content_if. rauto. Qed.

Lemma end_document_reset q : p_keep_tags q = false -> end_document q = set_anchors (set_tags q []) [] (p_anchor_id q).
Proof. unfold end_document. intros ->. reflexivity. Qed.

Lemma document_end_R p1 p2 e sp p1' :
  R p1 p2 -> document_end p1 = Ok ((e, sp), p1') ->
  (exists sp' p2', document_end p2 = Ok ((e, sp'), p2') /\ R p1' p2' /\ DL p1')
  \/ (e = EDocumentEnd /\ p_state p1' = SDocumentStart /\ p_token p1' = Some se
      /\ p_anchor_id p1' = p_anchor_id p1 /\ p_states p1' = p_states p1
      /\ exists sp', document_end p2 = Ok ((EDocumentEnd, sp'), pB (p_states p2) (p_anchor_id p2))).
Proof.
  intros HR. rewrite !document_end_eq.
  destruct (peek p1) as [[t1 x1]| |] eqn:E1; try discriminate.
  destruct (peek_R _ _ _ _ HR E1) as (t2 & x2 & E2 & HX & Hs & Ht & Ht' & Hc). rewrite E2.
  pose proof HX as (_ & _ & EA & EI & ET & K1 & K2 & P & _).
  pose proof (peek_other_fields _ _ _ E1) as (_ & _ & EI1 & _). pose proof (peek_fields _ _ _ E1) as (_ & ES1).
  pose proof (peek_other_fields _ _ _ E2) as (_ & _ & EI2 & _). pose proof (peek_fields _ _ _ E2) as (_ & ES2).
  rewrite (end_document_reset x1 K1), (end_document_reset x2 K2).
  rewrite (end_document_reset (skip x1) K1), (end_document_reset (skip x2) K2).
  cbn [p_anchor_id skip set_tok]. rewrite EI.
  destruct Hc as [[-> Hn]|[-> ->]].
  - destruct t1 as [sp0 k]. cbn [fst snd]. destruct (tis TDocumentEnd k) eqn:EK.
    + intros H; inversion H; subst. left. eexists _, _. split; [reflexivity|]. split; [solveR|].
      unfold DL; cbn. split; [discriminate|auto].
    + assert (C1 : p_token (set_anchors (set_tags x1 []) [] (p_anchor_id x1)) = Some (sp0, k)) by exact Ht.
      assert (C2 : p_token (set_anchors (set_tags x2 []) [] (p_anchor_id x1)) = Some (sp0, k)) by exact Ht'.
      rewrite (peek_cached _ _ C1), (peek_cached _ _ C2). cbn [fst snd].
      destruct (tin directive_kinds k); [discriminate|].
      intros H; inversion H; subst. left. eexists _, _. split; [reflexivity|]. split; [solveR|].
      unfold DL; cbn. split; [discriminate|]. repeat split; auto. eexists. repeat split; [eassumption| |exact Hn].
      cbn. intros ->. discriminate EK.
  - cbn [fst snd tis].
    assert (C1 : p_token (set_anchors (set_tags x1 []) [] (p_anchor_id x1)) = Some se) by exact Ht.
    rewrite (peek_cached _ _ C1). cbn [fst snd]. intros H; inversion H; subst. right.
    split; [reflexivity|]. split; [reflexivity|]. split; [exact Ht|]. split; [exact EI1|]. split; [exact ES1|].
    eexists. f_equal. f_equal.
    destruct P as [l P1 P2 P3 P4 P5|P1 P2 P3 P4|P1 P2 P3 P4]; [exfalso; apply (P2 _ Ht); reflexivity| |congruence].
    rewrite <- ES2, <- EI2, <- EI. unfold pB. clear - P4 K2. destruct x2; cbn in *. subst. reflexivity.
Qed.

Theorem sim_step p1 p2 e sp p1' :
  R p1 p2 -> DL p1 -> state_machine p1 = Ok ((e, sp), p1') ->
  (exists sp' p2', state_machine p2 = Ok ((e, sp'), p2') /\ R p1' p2' /\ DL p1')
  \/ (e = EStreamEnd /\ sp = sps /\ p_state p1 = SImplicitDocumentStart /\ p_state p1' = SEnd
      /\ p_anchor_id p1' = p_anchor_id p1 /\ state_machine p2 = state_machine (restp p2))
  \/ (e = EDocumentEnd /\ p_state p1 = SDocumentEnd /\ p_state p1' = SDocumentStart /\ p_token p1' = Some se
      /\ p_anchor_id p1' = p_anchor_id p1 /\ p_states p1' = p_states p1
      /\ exists sp', state_machine p2 = Ok ((EDocumentEnd, sp'), pB (p_states p2) (p_anchor_id p2))).
Proof.
  intros HR HD0. pose proof HR as (A & _). unfold state_machine. pose proof HD0 as [_ HD]. 
  destruct (p_state p1) eqn:ES; cbn [st_eq] in A;
    try (rewrite A; intros H; left; revert H; apply RR_elim;
         solve [auto using stream_start_R, document_content_R, parse_node_R, block_mapping_key_R, block_mapping_value_R,
                  block_sequence_entry_R, indentless_sequence_entry_R, flow_sequence_entry_R, flow_mapping_key_R,
                  flow_mapping_value_R, fsem_key_R, fsem_value_R]).
  - (* implicit document start *)
    rewrite A. intros H. apply (document_start_R _ _ _ _ _ _ HR) in H; [|discriminate].
    destruct H as [H|(_ & E1 & E1' & E2 & E3 & E4)]; [left; exact H|right; left].
    split; [exact E1|]. split; [exact E1'|]. split; [reflexivity|]. split; [exact E2|]. split; [exact E3|].
    cbn [p_state restp set_tok]. rewrite ?A. exact E4.
  - (* explicit document start: the next token is cached and belongs to the first stream *)
    rewrite A. intros H. apply (document_start_R _ _ _ _ _ _ HR) in H; [|intros _; apply HD].
    destruct H as [H|(E0 & _)]; [left; exact H|discriminate].
  - (* document end *)
    rewrite A. intros H. apply (document_end_R _ _ _ _ _ HR) in H.
    destruct H as [H|(H1 & H2)]; [left; exact H|right; right; split; [exact H1|split; [reflexivity|exact H2]]].
  - (* the state that stores a marker *)
    destruct A as [m' ->]. unfold flow_sequence_entry_mapping_end. intros H; inversion H; subst. left.
    eexists _, _. split; [reflexivity|]. split; [solveR|unfold DL; cbn; split; [discriminate|exact I]].
  - discriminate.
Qed.

End Sim.
