(* C13, scanner half (1): states in normal form, insignificant whitespace in front of a token and behind one.
   The scanner model (Model/SFetch.v over the string input) is executed symbolically on states [mkst] in which everything
   a JSON text never touches is fixed (indent -1, no block indents, stream started, not ended); what the model does at a
   token once the whitespace around it is dealt with is in FlowSkeleton.v. *)
From Coq Require Import List NArith ZArith Bool Arith Lia.
Import ListNotations.
Require Import Parser SBase SPrim SDir SScalar SFetch Pipe Json FlowFold FlowScalarProofs PlainScalarProofs QuotedFoldProofs ScanSimpl.
Require Export FlowSkeleton.
Open Scope N_scope.
Open Scope mon_scope.

Arguments N.eqb n m : simpl nomatch.
Arguments Nat.ltb n m : simpl nomatch.
Arguments Nat.leb n m : simpl nomatch.
Arguments Nat.sub n m : simpl nomatch.
Arguments N.ltb x y : simpl nomatch.
Arguments N.leb x y : simpl nomatch.
Arguments Nat.max : simpl never.

(* states in normal form *)
Definition mkst (chars : list N) (look : nat) (mk : marker) (toks : list token) (adj : N) (ska : bool)
   (sks : list simple_key) (fl : N) (tp : N) (ta : bool) (lws : bool) (ifms : list ims) : sc strin :=
  {| sc_in := {| si_chars := chars; si_look := look |}; sc_mark := mk; sc_tokens := toks;
     sc_stream_start := true; sc_stream_end := false; sc_adjacent := adj; sc_ska := ska; sc_sks := sks;
     sc_indent := (-1)%Z; sc_indents := []; sc_flow_level := fl; sc_tokens_parsed := tp;
     sc_token_available := ta; sc_lws := lws; sc_ifms := ifms |}.

Definition skey (p : bool) (tn : N) (m : marker) : simple_key :=
  {| sk_possible := p; sk_required := false; sk_token_number := tn; sk_mark := m |}.
Definition dummy_key : simple_key := skey false 0 mk0.

Lemma mkst_st chars l mk q adj ska sks fl tp ta lws ifms :
  mkst chars l mk q adj ska sks fl tp ta lws ifms = st_with (mkst [] 0 mk0 q adj ska sks fl tp ta false ifms) chars l mk lws.
Proof. reflexivity. Qed.

(* characters *)
Definition wsb (w : list N) : bool := forallb is_ws w.
(* the first character of what follows insignificant whitespace: not whitespace, not '#'; the end of the input counts *)
Definition tokstart (rest : list N) : Prop := is_ws (nth 0 rest 0) = false /\ (nth 0 rest 0 =? 35) = false.

Lemma is_ws_cases c : is_ws c = true -> c = 32 \/ c = 9 \/ c = 10 \/ c = 13.
Proof.
  unfold is_ws, Resolver.ch. intros H. repeat (apply orb_prop in H; destruct H as [H|H]); apply N.eqb_eq in H; auto.
Qed.
Lemma is_ws_false c : is_ws c = false -> (c =? 32) = false /\ (c =? 9) = false /\ (c =? 10) = false /\ (c =? 13) = false.
Proof. unfold is_ws, Resolver.ch. intros H. repeat (apply orb_false_elim in H; destruct H as [H ?]). tauto. Qed.

Lemma wsb_app a b : wsb (a ++ b) = wsb a && wsb b.
Proof. apply forallb_app. Qed.

Ltac ev := repeat (cbn; unfold chr in *; rwf).


(* insignificant whitespace in front of a token: skip_to_next_token *)
Lemma stnt_S F (s : sc strin) :
  skip_to_next_token str_ops (S F) s =
  (c <- look_ch str_ops ;;
    s <- get ;;
    wb <- is_within_block ;;
    if (c =? 9) && wb && sc_lws s && (Z.of_N (m_col (sc_mark s)) <? sc_indent s)%Z then
      skip_ws_to_eol str_ops (S F) SkipYes ;;; b <- next_is str_ops is_breakz ;;
      if b then skip_to_next_token str_ops F else m <- mark ;; fail 41 m
    else if (c =? 9) || (c =? 32) then skip_blank str_ops ;;; skip_to_next_token str_ops F
    else if (c =? 10) || (c =? 13) then
      look str_ops 2 ;;; skip_linebreak str_ops ;;; fl <- flow_level ;;
      (if fl =? 0 then allow_simple_key else ret tt) ;;; skip_to_next_token str_ops F
    else if c =? 35 then
      n <- in_skip_while_non_breakz str_ops (S F) ;; adv_mark n ;;; skip_to_next_token str_ops F
    else ret tt) s.
Proof. reflexivity. Qed.

Arguments skip_linebreak : simpl never.
Lemma skip_linebreak_rec c r l m toks ss se adj ska sks ind inds fl tp ta lws ifms :
  (2 <= l)%nat -> is_break c = true ->
  skip_linebreak str_ops
    {| sc_in := {| si_chars := c :: r; si_look := l |}; sc_mark := m; sc_tokens := toks; sc_stream_start := ss; sc_stream_end := se;
       sc_adjacent := adj; sc_ska := ska; sc_sks := sks; sc_indent := ind; sc_indents := inds; sc_flow_level := fl;
       sc_tokens_parsed := tp; sc_token_available := ta; sc_lws := lws; sc_ifms := ifms |}
  = Ok (tt, {| sc_in := {| si_chars := if (c =? 13) && (nth 0 r 0 =? 10) then tl r else r; si_look := l |};
               sc_mark := if (c =? 13) && (nth 0 r 0 =? 10) then nlm (adv 1 m) else nlm m;
               sc_tokens := toks; sc_stream_start := ss; sc_stream_end := se;
               sc_adjacent := adj; sc_ska := ska; sc_sks := sks; sc_indent := ind; sc_indents := inds; sc_flow_level := fl;
               sc_tokens_parsed := tp; sc_token_available := ta; sc_lws := true; sc_ifms := ifms |}).
Proof.
  intros Hl Hc. destruct l as [|[|l]]; [lia|lia|]. unfold skip_linebreak, next_2_are, assert_buflen. cbn. unfold chr in *.
  destruct ((c =? 13) && (nth 0 r 0 =? 10)) eqn:E; cbn.
  - reflexivity.
  - rewrite Hc. reflexivity.
Qed.

Ltac brk := rewrite stnt_S; unfold mkst; ev; rewrite skip_linebreak_rec by (try reflexivity; lia); ev.

Lemma skip_ws_mk : forall n w, (length w <= n)%nat -> forall F rest l mk q adj ska sks fl tp ta lws ifms,
  (n < F)%nat -> wsb w = true -> tokstart rest ->
  exists l' mk' lws' ska',
    skip_to_next_token str_ops F (mkst (w ++ rest) l mk q adj ska sks fl tp ta lws ifms)
    = Ok (tt, mkst rest l' mk' q adj ska' sks fl tp ta lws' ifms)
    /\ (0 < fl -> ska' = ska) /\ (ska = true -> ska' = true) /\ (w = [] -> mk' = mk /\ lws' = lws).
Proof.
  induction n as [|n IH]; intros w Hlen F rest l mk q adj ska sks fl tp ta lws ifms HF Hw [Hts H35].
  - destruct w; [|cbn in Hlen; lia]. destruct F as [|F]; [lia|].
    apply is_ws_false in Hts as (H32 & H9 & H10 & H13).
    exists (Nat.max l 1), mk, lws, ska. cbn [app]. rewrite stnt_S. unfold mkst. ev. auto.
  - destruct w as [|c w].
    + apply (IH [] ltac:(cbn; lia) F rest l mk q adj ska sks fl tp ta lws ifms); [lia|exact Hw|split; assumption].
    + destruct F as [|F]; [lia|]. cbn [wsb forallb] in Hw. apply andb_prop in Hw as [Hc Hw].
      cbn [length] in Hlen.
      destruct (is_ws_cases c Hc) as [-> | [-> | [-> | ->]]].
      * destruct (IH w ltac:(lia) F rest (Nat.max l 1) (adv 1 mk) q adj ska sks fl tp ta lws ifms ltac:(lia) Hw (conj Hts H35))
          as (l' & mk' & lws' & ska' & E & H1 & H2 & _).
        exists l', mk', lws', ska'. split; [|split; [exact H1|split; [exact H2|discriminate]]].
        cbn [app]. rewrite stnt_S. unfold mkst. ev. exact E.
      * destruct (IH w ltac:(lia) F rest (Nat.max l 1) (adv 1 mk) q adj ska sks fl tp ta lws ifms ltac:(lia) Hw (conj Hts H35))
          as (l' & mk' & lws' & ska' & E & H1 & H2 & _).
        exists l', mk', lws', ska'. split; [|split; [exact H1|split; [exact H2|discriminate]]].
        cbn [app]. rewrite stnt_S. unfold mkst. ev. exact E.
      * destruct (IH w ltac:(lia) F rest (Nat.max (Nat.max l 1) 2) (nlm mk) q adj (if fl =? 0 then true else ska) sks fl tp ta true ifms ltac:(lia) Hw (conj Hts H35))
          as (l' & mk' & lws' & ska' & E & H1 & H2 & _).
        exists l', mk', lws', ska'. split; [|split; [|split; [|discriminate]]].
        -- cbn [app]. brk. destruct (fl =? 0); exact E.
        -- intros Hfl. rewrite (H1 Hfl). replace (fl =? 0) with false; [reflexivity|]. symmetry. apply N.eqb_neq. lia.
        -- intros Hs. apply H2. rewrite Hs. destruct (fl =? 0); reflexivity.
      * (* CR, possibly followed by LF *)
        destruct w as [|c2 w].
        -- destruct (IH [] ltac:(cbn; lia) F rest (Nat.max (Nat.max l 1) 2) (nlm mk) q adj (if fl =? 0 then true else ska) sks fl tp ta true ifms ltac:(lia) eq_refl (conj Hts H35))
             as (l' & mk' & lws' & ska' & E & H1 & H2 & _).
           exists l', mk', lws', ska'. split; [|split; [|split; [|discriminate]]].
           ++ cbn [app] in *. assert (Hne : (nth 0 rest 0 =? 10) = false) by (apply is_ws_false in Hts; tauto).
              brk. destruct (fl =? 0); exact E.
           ++ intros Hfl. rewrite (H1 Hfl). replace (fl =? 0) with false; [reflexivity|]. symmetry. apply N.eqb_neq. lia.
           ++ intros Hs. apply H2. rewrite Hs. destruct (fl =? 0); reflexivity.
        -- cbn [forallb] in Hw. apply andb_prop in Hw as [Hc2 Hw]. cbn [length] in Hlen.
           destruct (N.eqb_spec c2 10) as [->|Hne].
           ++ destruct (IH w ltac:(lia) F rest (Nat.max (Nat.max l 1) 2) (nlm (adv 1 mk)) q adj (if fl =? 0 then true else ska) sks fl tp ta true ifms ltac:(lia) Hw (conj Hts H35))
                as (l' & mk' & lws' & ska' & E & H1 & H2 & _).
              exists l', mk', lws', ska'. split; [|split; [|split; [|discriminate]]].
              ** cbn [app]. brk. destruct (fl =? 0); exact E.
              ** intros Hfl. rewrite (H1 Hfl). replace (fl =? 0) with false; [reflexivity|]. symmetry. apply N.eqb_neq. lia.
              ** intros Hs. apply H2. rewrite Hs. destruct (fl =? 0); reflexivity.
           ++ destruct (IH (c2 :: w) ltac:(cbn [length]; lia) F rest (Nat.max (Nat.max l 1) 2) (nlm mk) q adj (if fl =? 0 then true else ska) sks fl tp ta true ifms ltac:(lia)
                          ltac:(cbn [wsb forallb]; rewrite Hc2; exact Hw) (conj Hts H35))
                as (l' & mk' & lws' & ska' & E & H1 & H2 & _).
              exists l', mk', lws', ska'. split; [|split; [|split; [|discriminate]]].
              ** apply N.eqb_neq in Hne. cbn [app] in *. brk. destruct (fl =? 0); exact E.
              ** intros Hfl. rewrite (H1 Hfl). replace (fl =? 0) with false; [reflexivity|]. symmetry. apply N.eqb_neq. lia.
              ** intros Hs. apply H2. rewrite Hs. destruct (fl =? 0); reflexivity.
Qed.

(* blanks behind a token: skip_ws_to_eol *)
Arguments skip_ws_to_eol : simpl never.

Lemma ws_split w : wsb w = true ->
  exists b w', w = b ++ w' /\ forallb is_sp b = true /\ wsb w' = true /\ (w' = [] \/ is_break (nth 0 w' 0) = true).
Proof.
  induction w as [|c w IH]; intros H.
  - exists [], []. repeat split; auto.
  - cbn [wsb forallb] in H. apply andb_prop in H as [Hc H]. destruct (IH H) as (b & w' & E & Hb & Hw' & Hs).
    destruct (is_ws_cases c Hc) as [-> | [-> | [-> | ->]]].
    + exists (32 :: b), w'. subst w. repeat split; auto.
    + exists (9 :: b), w'. subst w. repeat split; auto.
    + exists [], (10 :: w). repeat split; auto.
    + exists [], (13 :: w). repeat split; auto.
Qed.

Lemma eol_blanks F b rest l mk q adj ska sks fl tp ta lws ifms :
  forallb is_sp b = true -> (nth 0 rest 0 =? 32) = false -> (nth 0 rest 0 =? 9) = false -> (nth 0 rest 0 =? 35) = false ->
  (length b < F)%nat ->
  exists l' tw,
    skip_ws_to_eol str_ops F SkipYes (mkst (b ++ rest) l mk q adj ska sks fl tp ta lws ifms)
    = Ok (tw, mkst rest l' (adv (N.of_nat (length b)) mk) q adj ska sks fl tp ta lws ifms).
Proof.
  intros Hb H32 H9 H35 HF. unfold skip_ws_to_eol. rewrite (mkst_st (b ++ rest)).
  destruct (ws_blanks (mkst [] 0 mk0 q adj ska sks fl tp ta false ifms) b (F - length b) false false 0 rest l mk lws Hb) as (l1 & E1).
  replace (length b + (F - length b))%nat with F in E1 by lia.
  replace (F - length b)%nat with (S (F - length b - 1)) in E1 by lia.
  rewrite ws_stop in E1 by assumption.
  exists (Nat.max l1 1), (false || has 9 b, false || has 32 b).
  rewrite (bind_Ok _ _ _ _ _ E1). cbn. rewrite N.add_0_l. reflexivity.
Qed.

Lemma eol_ws F w rest l mk q adj ska sks fl tp ta lws ifms :
  wsb w = true -> tokstart rest -> (length w < F)%nat ->
  exists l' mk' w' tw,
    skip_ws_to_eol str_ops F SkipYes (mkst (w ++ rest) l mk q adj ska sks fl tp ta lws ifms)
    = Ok (tw, mkst (w' ++ rest) l' mk' q adj ska sks fl tp ta lws ifms)
    /\ wsb w' = true /\ (length w' <= length w)%nat.
Proof.
  intros Hw [Hts H35] HF. destruct (ws_split w Hw) as (b & w' & -> & Hb & Hw' & Hs).
  rewrite app_length in HF.
  assert (Hstop : (nth 0 (w' ++ rest) 0 =? 32) = false /\ (nth 0 (w' ++ rest) 0 =? 9) = false /\ (nth 0 (w' ++ rest) 0 =? 35) = false).
  { destruct Hs as [-> | Hs].
    - cbn [app]. apply is_ws_false in Hts. tauto.
    - destruct w' as [|c w']; [discriminate|]. cbn [app nth] in *. unfold is_break in Hs.
      apply orb_prop in Hs as [Hs|Hs]; apply N.eqb_eq in Hs; subst c; repeat split. }
  destruct Hstop as (A & B & C).
  destruct (eol_blanks F b (w' ++ rest) l mk q adj ska sks fl tp ta lws ifms Hb A B C ltac:(lia)) as (l' & tw & E).
  exists l', (adv (N.of_nat (length b)) mk), w', tw. rewrite <- app_assoc. split; [exact E|]. split; [exact Hw'|].
  rewrite app_length. lia.
Qed.

(* insignificant whitespace in front of a token: fetch_next_token up to the dispatch *)
Lemma fnt_prefix F w c cs l mk q adj ska sks fl tp ta lws ifms :
  (length w < F)%nat -> wsb w = true -> tokstart (c :: cs) -> is_z c = false -> nodoc (c :: cs) -> calm fl sks ->
  exists l' mk' lws' ska',
    fetch_next_token str_ops F (mkst (w ++ c :: cs) l mk q adj ska sks fl tp ta lws ifms)
    = fnt_tail F (mkst (c :: cs) l' mk' q adj ska' sks fl tp ta lws' ifms)
    /\ (0 < fl -> ska' = ska) /\ (ska = true -> ska' = true) /\ (w = [] -> mk' = mk).
Proof.
  intros HF Hw Hts Hz Hnd Hcalm.
  destruct (skip_ws_mk (length w) w (le_n _) F (c :: cs) (Nat.max l 1) mk q adj ska sks fl tp ta lws ifms HF Hw Hts)
    as (l1 & mk' & lws' & ska' & E & H1 & H2 & H3).
  exists (Nat.max l1 4), mk', lws', ska'. split; [|split; [exact H1|split; [exact H2|intros Hn; exact (proj1 (H3 Hn))]]].
  exact (fnt_skip F _ l mk q adj ska sks fl tp ta lws ifms _ l1 mk' ska' lws' E Hcalm Hz (or_intror Hnd)).
Qed.
