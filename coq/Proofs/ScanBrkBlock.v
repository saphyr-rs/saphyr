(* C14 (see ScanBrk.v): the BLOCK SCALAR family - the walk of ScanLockBlock.v at the lock [brk_lock md].  A content
   line ends at a break, which [skip_break] consumes as one step (LF on side 1, CR LF / CR on side 2); breaks are
   COUNTED ([nls]), never copied, so the scalar text is equal. *)
Require Import ScanBrk.
Require ScanLockBlock.

Theorem scan_block_scalar_ok md : brk_scan_block_scalar md.
Proof. exact (ScanLockBlock.scan_block_scalar_ok (brk_lock md)). Qed.

Check scan_block_scalar_ok.
Print Assumptions scan_block_scalar_ok.
