(* C05 — from the cases of the specification to the theorems about scan_block_scalar.

   Spec/BlockScalar.v describes a block scalar as a record [bcase] (style, chomping, indicator, header comment, raw
   lines, end shape, break style) with the decidable side conditions [case_ok], its YAML text [case_text] and its
   value [case_value].  Proofs/BlockScalarProofs.v proves scan_block_scalar correct under hypotheses stated on line
   lists ([line_ok], [ends_after], [header_tail], ...).  This file discharges those hypotheses from [case_ok]:

     block_scalar_case : for EVERY case b with case_ok b = true that is not in the one remaining finding class
       ([leading_tab]: content indentation 0 and a tab at column 0 of the first line), every break style, from any
       scanner state that stands at the indicator with the parent indentation of the case, with enough fuel,
       scan_block_scalar on the string input returns exactly (style, case_value b) and stops at the line that
       follows the scalar.

   What separates this from [C05_full] (Proofs/BlockScalarProofs.v): the text in front of the indicator (the scanner
   reaching scan_block_scalar in that state), the buffered inputs, and the [leading_tab] class. *)
From Coq Require Import List NArith ZArith Bool Arith Lia.
Import ListNotations.
Require Import Parser SBase SPrim SDir SScalar BlockScalar ScalarKit BlockScalarProofs.
Open Scope N_scope.

(* boolean side conditions of the specification as propositions *)
Lemma nb_char_breakz c : nb_char c = true -> is_breakz c = false.
Proof.
  unfold nb_char, is_breakz, is_break, is_z. intros H. apply negb_true_iff in H.
  apply orb_false_iff in H. destruct H as [H H4]. apply orb_false_iff in H. destruct H as [H H3].
  apply orb_false_iff in H. destruct H as [H1 H2]. rewrite H1, H2, H3. reflexivity.
Qed.

Lemma forallb_nb_nobreak s : forallb nb_char s = true -> nobreak s.
Proof.
  intros H. apply Forall_forall. intros c Hc. apply nb_char_breakz. rewrite forallb_forall in H. apply H. exact Hc.
Qed.

Lemma rest_text_ok_facts s : rest_text_ok s = true -> nobreak s /\ hd0 s <> 32.
Proof.
  unfold rest_text_ok. intros H. apply andb_true_iff in H. destruct H as [H1 H2]. split; [apply forallb_nb_nobreak; exact H1|].
  destruct s as [|c r]; [discriminate|]. apply negb_true_iff in H2. apply N.eqb_neq in H2. exact H2.
Qed.

(* the header comment: white space, then nothing or '#' and characters.  [hc_tail_ok] alone allows a '#' first;
   [hc_ok] demands a white first character. *)
Inductive hc_shape : list N -> Prop :=
| hcs_white wh : whites wh -> hc_shape wh
| hcs_comment wh txt : whites wh -> nobreak txt -> hc_shape (wh ++ 35 :: txt).

Lemma hc_tail_ok_shape : forall s, hc_tail_ok s = true -> hc_shape s.
Proof.
  induction s as [|c r IH]; intros H.
  - apply hcs_white. constructor.
  - cbn [hc_tail_ok] in H. destruct (is_white c) eqn:Ew.
    + specialize (IH H). pose proof (blank_cases c Ew) as Hc.
      inversion IH as [wh Hwh|wh txt Hwh Hnb]; subst.
      * apply hcs_white. constructor; assumption.
      * apply (hcs_comment (c :: wh) txt); [constructor; assumption|exact Hnb].
    + apply andb_true_iff in H. destruct H as [H35 Hnb]. apply N.eqb_eq in H35. subst c.
      apply (hcs_comment [] r); [constructor|apply forallb_nb_nobreak; exact Hnb].
Qed.

Lemma hc_ok_header_tail s : hc_ok s = true -> header_tail s.
Proof.
  unfold hc_ok. destruct s as [|c r]; [intros _; apply ht_white; constructor|].
  intros H. apply andb_true_iff in H. destruct H as [Hw Ht].
  pose proof (hc_tail_ok_shape _ Ht) as Hs. inversion Hs as [wh Hwh|wh txt Hwh Hnb]; subst.
  - apply ht_white. exact Hwh.
  - apply ht_comment; [exact Hwh| |exact Hnb].
    destruct wh as [|w wh']; [|discriminate]. cbn [app] in H. inversion H; subst. discriminate Hw.
Qed.

(* raw lines and their classification *)
Lemma classify_line_ok F n (l : rline) :
  rest_text_ok (snd l) = true -> match snd l with [] => True | _ => (n <= fst l)%nat end ->
  (fst l + length (snd l) < F)%nat -> line_ok F n (classify n l).
Proof.
  destruct l as [k s]. cbn [fst snd]. intros Hs Hk HF. destruct (rest_text_ok_facts s Hs) as [Hnb Hhd].
  unfold classify. cbn [fst snd]. destruct s as [|c r].
  - destruct (Nat.leb_spec k n).
    + cbn [line_ok]. cbn [length] in HF. lia.
    + cbn [line_ok length]. cbn [length] in HF. repeat split; [constructor|exact Hhd|left; lia|lia].
  - cbn [line_ok]. repeat split; [exact Hnb|exact Hhd|right; discriminate|lia].
Qed.

Lemma classify_col0 n (l : rline) :
  (n = O -> (Nat.eqb (fst l) O && marker_line (snd l)) = false) -> (match snd l with [] => True | _ => (n <= fst l)%nat end) ->
  line_col0 n (classify n l).
Proof.
  destruct l as [k s]. cbn [fst snd]. intros H Hk. unfold classify. cbn [fst snd]. destruct s as [|c r].
  - destruct (Nat.leb k n); cbn [line_col0]; [exact I|]. intros _ _. reflexivity.
  - cbn [line_col0]. intros Hn He. specialize (H Hn). assert (k = O) by lia. subst k. exact H.
Qed.

Lemma first_text_classify n : forall raw, first_text_indent raw = Some n -> leading_raw_blanks_le n raw = true ->
  exists txt, first_text (map (classify n) raw) = Some (O, txt) /\ txt <> [].
Proof.
  induction raw as [|[k s] raw IH]; intros Hf Hl; [discriminate|].
  cbn [first_text_indent] in Hf. cbn [leading_raw_blanks_le] in Hl. destruct s as [|c r].
  - apply andb_true_iff in Hl. destruct Hl as [Hk Hl]. cbn [map]. unfold classify at 1. cbn [fst snd]. rewrite Hk. cbn [first_text].
    apply IH; assumption.
  - inversion Hf; subst. cbn [map]. unfold classify at 1. cbn [fst snd]. cbn [first_text]. rewrite Nat.sub_diag.
    exists (c :: r). split; [reflexivity|discriminate].
Qed.

Lemma first_text_indent_none n : forall raw, first_text_indent raw = None -> (forall l, In l raw -> (fst l <= n)%nat) ->
  has_text (map (classify n) raw) = false.
Proof.
  induction raw as [|[k s] raw IH]; intros Hf Hle; [reflexivity|].
  cbn [first_text_indent] in Hf. destruct s as [|c r]; [|discriminate].
  cbn [map]. unfold classify at 1. cbn [fst snd].
  assert (Hk : Nat.leb k n = true) by (apply Nat.leb_le; apply (Hle (k, [])); left; reflexivity).
  rewrite Hk. unfold has_text. cbn [existsb is_text orb]. apply IH; [exact Hf|]. intros l Hl. apply Hle. right. exact Hl.
Qed.

Lemma longest_ge (raw : list rline) l : In l raw -> (fst l <= longest raw)%nat.
Proof.
  induction raw as [|x raw IH]; intros H; [contradiction|]. unfold longest. cbn [fold_right]. fold (longest raw).
  destruct H as [->|H]; [lia|]. specialize (IH H). lia.
Qed.

(* no content line: every raw line is a run of at most n spaces *)
Lemma no_text_blanks n : forall raw, has_text (map (classify n) raw) = false ->
  exists ks, raw = map (fun k => (k, [])) ks /\ map (classify n) raw = map Blank ks /\ Forall (fun k => (k <= n)%nat) ks.
Proof.
  induction raw as [|[k s] raw IH]; intros H; [exists []; repeat split; constructor|].
  cbn [map] in H. unfold has_text in H. cbn [existsb] in H. apply orb_false_iff in H. destruct H as [H1 H2].
  destruct (IH H2) as [ks [Er [E Hle]]]. unfold classify in H1. cbn [fst snd] in H1.
  destruct s as [|c r]; [|discriminate]. destruct (Nat.leb_spec k n) as [Hk|]; [|discriminate].
  exists (k :: ks). cbn [map]. rewrite <- Er, E. unfold classify. cbn [fst snd]. rewrite (proj2 (Nat.leb_le k n) Hk).
  repeat split. constructor; assumption.
Qed.

(* the fuel a case needs *)
Definition case_fuel (b : bcase) : nat :=
  (2 * length (bc_hc b) + 3 + length (bc_raw b) +
   fold_right (fun (l : rline) m => Nat.max (fst l + length (snd l)) m) (case_indent b) (bc_raw b))%nat.

Lemma fold_max_ge (raw : list rline) (z : nat) :
  (z <= fold_right (fun (l : rline) m => Nat.max (fst l + length (snd l)) m) z raw)%nat /\
  forall l, In l raw -> (fst l + length (snd l) <= fold_right (fun (l : rline) m => Nat.max (fst l + length (snd l)) m) z raw)%nat.
Proof.
  induction raw as [|x raw [IH1 IH2]]; [split; [cbn; lia|intros l []]|].
  cbn [fold_right]. split; [lia|]. intros l [->|H]; [lia|]. specialize (IH2 l H). lia.
Qed.

Definition parent_z (p : option nat) : Z := match p with None => (-1)%Z | Some p => Z.of_nat p end.

(* the line that follows the scalar ([EofRest r]) *)
Lemma first_line_cons c r : first_line (c :: r) = if (c =? 10) || (c =? 13) then [] else c :: first_line r.
Proof. reflexivity. Qed.

(* r = j - k spaces, then r0 whose first line is t *)
Lemma strip_first_line : forall r k j t, strip_spaces k (first_line r) = (j, t) ->
  exists r0, r = sps (j - k) ++ r0 /\ first_line r0 = t /\ (k <= j)%nat /\ hd0 r0 <> 32.
Proof.
  induction r as [|c r IH]; intros k j t H.
  - cbn in H. inversion H; subst. exists []. rewrite Nat.sub_diag. repeat split; [lia|discriminate].
  - rewrite first_line_cons in H. destruct ((c =? 10) || (c =? 13)) eqn:Eb.
    + cbn [strip_spaces] in H. inversion H; subst. exists (c :: r). rewrite Nat.sub_diag. rewrite first_line_cons, Eb.
      repeat split; [lia|]. intro E. change (c = 32) in E. subst c. discriminate Eb.
    + cbn [strip_spaces] in H. destruct (N.eqb_spec c 32) as [->|Hc].
      * destruct (IH (S k) j t H) as [r0 [E [Hf [Hle Hhd]]]]. exists r0. split; [|split; [exact Hf|split; [lia|exact Hhd]]].
        rewrite E at 1. replace (j - k)%nat with (S (j - S k)) by lia. reflexivity.
      * inversion H; subst. exists (c :: r). rewrite Nat.sub_diag, first_line_cons, Eb. repeat split; [lia|exact Hc].
Qed.

Lemma first_line_head r0 c t : first_line r0 = c :: t -> exists r1, r0 = c :: r1 /\ first_line r1 = t /\ is_break c = false.
Proof.
  destruct r0 as [|x r1]; [discriminate|]. rewrite first_line_cons. destruct ((x =? 10) || (x =? 13)) eqn:E; [discriminate|].
  intros H. inversion H; subst. exists r1. repeat split. exact E.
Qed.

Lemma first_line_nil r0 : first_line r0 = [] -> r0 = [] \/ is_break (hd0 r0) = true.
Proof.
  destruct r0 as [|x r1]; [left; reflexivity|]. rewrite first_line_cons. destruct ((x =? 10) || (x =? 13)) eqn:E; [|discriminate].
  intros _. right. exact E.
Qed.

Lemma wbrk_cons_nolf brk c r : c <> 10 -> wbrk brk (c :: r) = c :: wbrk brk r.
Proof. intros H. unfold wbrk. cbn [flat_map]. destruct (N.eqb_spec c 10); [contradiction|reflexivity]. Qed.

Lemma nb_not_lf c : is_break c = false -> c <> 10.
Proof. intros H ->. discriminate H. Qed.

(* the first character of a rest that starts with a break, or is empty, after replacing the line feeds *)
Lemma hd0_wbrk_breakz brk r1 : break_style brk -> (r1 = [] \/ is_break (hd0 r1) = true) ->
  is_blank_or_breakz (hd0 (wbrk brk r1)) = true.
Proof.
  intros Hb [->|H]; [reflexivity|]. destruct r1 as [|x r]; [discriminate H|]. change (is_break x = true) in H.
  destruct (N.eqb_spec x 10) as [->|Hx].
  - rewrite wbrk_lf. destruct (hd0_brk brk Hb (wbrk brk r)) as [-> | ->]; reflexivity.
  - rewrite wbrk_cons_nolf by exact Hx. change (hd0 (x :: wbrk brk r)) with x.
    unfold is_blank_or_breakz, is_breakz. rewrite H. apply orb_true_r.
Qed.

Lemma marker_doc_ind_wbrk brk r0 : break_style brk -> marker_line (first_line r0) = true -> doc_ind_b (wbrk brk r0) = true.
Proof.
  intros Hb Hm. destruct (first_line r0) as [|a [|b [|c rest]]] eqn:Ef; try discriminate Hm.
  destruct (first_line_head _ _ _ Ef) as [r1 [-> [Ef1 Ha]]].
  destruct (first_line_head _ _ _ Ef1) as [r2 [-> [Ef2 Hbk]]].
  destruct (first_line_head _ _ _ Ef2) as [r3 [-> [Ef3 Hc]]].
  rewrite !wbrk_cons_nolf by (apply nb_not_lf; assumption).
  unfold doc_ind_b. cbn [nth]. cbn [marker_line] in Hm. apply andb_true_iff in Hm. destruct Hm as [H3 Hr].
  rewrite orb_comm in H3. rewrite H3, andb_true_r.
  change (nth 0 (wbrk brk r3) 0) with (hd0 (wbrk brk r3)).
  destruct rest as [|d rest'].
  - apply hd0_wbrk_breakz; [exact Hb|]. apply first_line_nil. exact Ef3.
  - destruct (first_line_head _ _ _ Ef3) as [r4 [-> [_ Hd]]]. rewrite wbrk_cons_nolf by (apply nb_not_lf; exact Hd).
    change (hd0 (d :: wbrk brk r4)) with d. unfold is_blank_or_breakz. unfold is_white in Hr. unfold is_blank. rewrite Hr. reflexivity.
Qed.

(* the case from the indicator on *)
Definition case_block (b : bcase) : list N :=
  with_breaks (bc_brk b) (render_block (case_indent b) (bc_literal b) (bc_chomp b) (bc_explicit b) (bc_digit_first b)
                                       (bc_hc b) (case_lines b) (bc_eof b)).
(* what is left of the input when the scalar has been read: the line that follows, without its indentation *)
Definition case_rest (b : bcase) : list N :=
  match bc_eof b with EofRest r => snd (strip_spaces O (with_breaks (bc_brk b) r)) | _ => [] end.

Lemma case_text_split b : case_text b = with_breaks (bc_brk b) (bc_prefix b) ++ case_block b.
Proof. unfold case_text, case_block, with_breaks. apply flat_map_app. Qed.

(* the one class of cases on which scan_block_scalar differs from the specification (known finding): content
   indentation 0 and a tab at column 0 of the first line below the header *)
Definition leading_tab (b : bcase) : Prop := case_indent b = O /\ first_char O (case_lines b) = 9.

Record case_facts (b : bcase) (F : nat) : Prop := {
  cf_lines : Forall (line_ok F (case_indent b)) (case_lines b);
  cf_col0 : Forall (line_col0 (case_indent b)) (case_lines b);
  cf_hc : header_tail (bc_hc b);
  cf_hcF : (2 * length (bc_hc b) + 2 < F)%nat;
  cf_len : (S (length (case_lines b)) < F)%nat;
  cf_nF : (case_indent b < F)%nat;
  cf_pmin : Z.to_N (parent_z (bc_parent b) + 1) <= N.of_nat (case_indent b);
  cf_explicit : forall d, bc_explicit b = Some d ->
                (1 <= d <= 9)%nat /\
                N.of_nat (case_indent b) = (if (0 <=? parent_z (bc_parent b))%Z
                                            then Z.to_N (parent_z (bc_parent b) + Z.of_N (N.of_nat d)) else N.of_nat d);
  cf_auto : bc_explicit b = None -> has_text (case_lines b) = true ->
            exists txt, first_text (case_lines b) = Some (O, txt) /\ txt <> [];
  cf_eof : match bc_eof b with
           | EofNewline => True
           | EofNone => match rev (bc_raw b) with [] => True | (k, s) :: _ => k <> O \/ s <> [] end
           | EofRest r => rest_ok (bc_parent b) (case_indent b) (has_text (case_lines b)) r = true
           end }.

Lemma case_ok_facts b F : case_ok b = true -> (case_fuel b < F)%nat -> case_facts b F.
Proof.
  intros Hok HF. unfold case_ok in Hok. cbv zeta in Hok.
  repeat (apply andb_true_iff in Hok; let H := fresh "Hc" in destruct Hok as [Hok H]).
  rename Hok into Htxt. (* Hc4: indentation of content lines, Hc3: parent_min, Hc2: explicit / auto, Hc1: marker, Hc0: hc, Hc: eof *)
  set (n := case_indent b) in *. set (raw := bc_raw b) in *.
  rewrite forallb_forall in Htxt, Hc4.
  unfold case_fuel in HF. fold n raw in HF.
  destruct (fold_max_ge raw n) as [Hmn Hml].
  assert (Hline : forall l, In l raw -> line_ok F n (classify n l) /\ line_col0 n (classify n l)).
  { intros l Hl. specialize (Htxt l Hl). specialize (Hc4 l Hl). specialize (Hml l Hl).
    assert (Hk : match snd l with [] => True | _ :: _ => (n <= fst l)%nat end).
    { destruct (snd l); [exact I|]. apply Nat.leb_le. exact Hc4. }
    split.
    - apply classify_line_ok; [exact Htxt|exact Hk|lia].
    - apply classify_col0; [|exact Hk]. intros Hn0.
      apply orb_true_iff in Hc1. destruct Hc1 as [Hc1|Hc1].
      + apply negb_true_iff in Hc1. apply Nat.eqb_neq in Hc1. contradiction.
      + rewrite forallb_forall in Hc1. specialize (Hc1 l Hl). apply negb_true_iff in Hc1. exact Hc1. }
  constructor.
  - unfold case_lines. fold n raw. apply Forall_forall. intros x Hx. apply in_map_iff in Hx. destruct Hx as [l [<- Hl]].
    exact (proj1 (Hline l Hl)).
  - unfold case_lines. fold n raw. apply Forall_forall. intros x Hx. apply in_map_iff in Hx. destruct Hx as [l [<- Hl]].
    exact (proj2 (Hline l Hl)).
  - apply hc_ok_header_tail. exact Hc0.
  - lia.
  - unfold case_lines. rewrite map_length. fold raw. lia.
  - lia.
  - apply Nat.leb_le in Hc3. destruct (bc_parent b) as [p|]; cbn [parent_z parent_min] in *; lia.
  - intros d Hd. rewrite Hd in Hc2. apply andb_true_iff in Hc2. destruct Hc2 as [Hd1 Hd9].
    apply Nat.leb_le in Hd1. apply Nat.leb_le in Hd9. split; [lia|].
    subst n. unfold case_indent, content_indent. rewrite Hd.
    destruct (bc_parent b) as [p|]; cbn [parent_z].
    + destruct (Z.leb_spec 0 (Z.of_nat p)); lia.
    + reflexivity.
  - intros He Ht. rewrite He in Hc2. unfold case_lines in *. fold n raw in Ht |- *.
    destruct (first_text_indent raw) as [k|] eqn:Ef.
    + assert (En : n = k) by (subst n; unfold case_indent, content_indent; rewrite He; fold raw; rewrite Ef; reflexivity).
      rewrite <- En in Ef. apply first_text_classify; assumption.
    + exfalso. rewrite (first_text_indent_none n raw Ef) in Ht; [discriminate|].
      intros l Hl. assert (En : n = Nat.max (longest raw) (parent_min (bc_parent b)))
        by (subst n; unfold case_indent, content_indent; rewrite He; fold raw; rewrite Ef; reflexivity).
      pose proof (longest_ge raw l Hl). lia.
  - destruct (bc_eof b) as [| |r]; [exact I| |exact Hc].
    fold raw. destruct (rev raw) as [|[k s] rr]; [exact I|].
    apply orb_true_iff in Hc. destruct Hc as [Hc|Hc].
    + left. apply negb_true_iff in Hc. apply Nat.eqb_neq in Hc. exact Hc.
    + right. destruct s; [discriminate|discriminate].
Qed.

(* text shapes *)
Lemma render_rest_app n literal c explicit digit_first hc lines r :
  render_block n literal c explicit digit_first hc lines (EofRest r)
  = render_block n literal c explicit digit_first hc lines (EofRest []) ++ r.
Proof. unfold render_block. rewrite <- !app_assoc. reflexivity. Qed.

Lemma strip_spaces_sps : forall j k x, hd0 x <> 32 -> strip_spaces k (sps j ++ x) = ((k + j)%nat, x).
Proof.
  induction j as [|j IH]; intros k x Hx.
  - cbn [sps repeat app]. rewrite Nat.add_0_r. destruct x as [|c r]; [reflexivity|]. cbn [strip_spaces].
    destruct (N.eqb_spec c 32) as [->|_]; [exfalso; apply Hx; reflexivity|reflexivity].
  - change (sps (S j) ++ x) with (32 :: sps j ++ x). cbn [strip_spaces]. change (32 =? 32) with true. cbv iota.
    rewrite IH by exact Hx. f_equal. lia.
Qed.

(* the follower line of a case, decomposed: r = j spaces ++ r0; what the scanner is left with is r0 with its breaks *)
Lemma rest_decompose brk parent n text r : break_style brk -> rest_ok parent n text r = true ->
  exists j r0 c,
    r = sps j ++ r0 /\ hd0 (wbrk brk r0) = c /\ wbrk brk r0 <> [] /\ c <> 32 /\ c <> 9 /\ c <> 0 /\ is_break c = false /\
    snd (strip_spaces O (wbrk brk r)) = wbrk brk r0 /\
    (((c = 35 /\ (j < n)%nat /\ text = true) \/
      match parent with
      | Some p => (j <= p)%nat
      | None => j = O /\ doc_ind_b (wbrk brk r0) = true
      end)).
Proof.
  intros Hb H. unfold rest_ok in H. destruct (strip_spaces O (first_line r)) as [j t] eqn:Es.
  destruct (strip_first_line r O j t Es) as [r0 [Er [Ef [_ Hhd]]]]. rewrite Nat.sub_0_r in Er.
  destruct t as [|c t']; [discriminate|].
  destruct (first_line_head _ _ _ Ef) as [r1 [Er0 [_ Hcb]]].
  apply andb_true_iff in H. destruct H as [H Hrest]. apply andb_true_iff in H. destruct H as [H9 H0].
  apply negb_true_iff in H9. apply N.eqb_neq in H9. apply negb_true_iff in H0. apply N.eqb_neq in H0.
  assert (Hw : wbrk brk r0 = c :: wbrk brk r1) by (rewrite Er0; apply wbrk_cons_nolf; apply nb_not_lf; exact Hcb).
  exists j, r0, c. split; [exact Er|]. split; [rewrite Hw; reflexivity|]. split; [rewrite Hw; discriminate|].
  assert (Hc32 : c <> 32) by (rewrite Er0 in Hhd; exact Hhd).
  split; [exact Hc32|]. split; [exact H9|]. split; [exact H0|]. split; [exact Hcb|]. split.
  - rewrite Er, wbrk_app, wbrk_sps, strip_spaces_sps; [reflexivity|]. rewrite Hw. exact Hc32.
  - apply orb_true_iff in Hrest. destruct Hrest as [Hcm|Hp].
    + left. apply andb_true_iff in Hcm. destruct Hcm as [Hcm Ht]. apply andb_true_iff in Hcm. destruct Hcm as [H35 Hj].
      apply N.eqb_eq in H35. apply Nat.ltb_lt in Hj. auto.
    + right. destruct parent as [p|].
      * apply Nat.leb_le. exact Hp.
      * apply andb_true_iff in Hp. destruct Hp as [Hj Hm]. apply Nat.eqb_eq in Hj. split; [exact Hj|].
        apply marker_doc_ind_wbrk; [exact Hb|]. rewrite Ef. exact Hm.
Qed.

Lemma last_line_aux n (rr : list rline) : match rr with [] => True | (k, s) :: _ => k <> O \/ s <> [] end ->
  match map (classify n) rr with Blank O :: _ => False | _ => True end.
Proof.
  destruct rr as [|[k s] rr]; [intros _; exact I|].
  intros H. cbn [map]. unfold classify. cbn [fst snd]. destruct s as [|c r].
  - destruct (Nat.leb k n); [|exact I]. destruct k; [destruct H; congruence|exact I].
  - exact I.
Qed.

Lemma last_line_of_raw n (raw : list rline) : match rev raw with [] => True | (k, s) :: _ => k <> O \/ s <> [] end ->
  last_line_nonempty (map (classify n) raw).
Proof. intros H. unfold last_line_nonempty. rewrite <- map_rev. apply last_line_aux. exact H. Qed.

(* the theorem, scalars with content *)
Lemma case_with_text : forall b (s : sc strin) F inds,
  case_facts b F -> has_text (case_lines b) = true -> ~ leading_tab b ->
  si_chars (sc_in s) = case_block b ->
  unroll_nb (sc_indents s) (sc_indent s) = (parent_z (bc_parent b), inds) ->
  yields (bc_literal b) (case_value b) (case_rest b) (scan_block_scalar str_ops F (bc_literal b) s).
Proof.
  intros b s F inds Hf Htext Htab Hchars Hun. destruct Hf.
  set (n := case_indent b) in *. set (lines := case_lines b) in *. set (pz := parent_z (bc_parent b)) in *.
  assert (Hfc : n = O -> first_char n lines <> 9).
  { intros Hn E. apply Htab. split; [exact Hn|]. rewrite Hn in E. exact E. }
  assert (Hexp : match bc_explicit b with
                 | Some d => (1 <= d <= 9)%nat /\ N.of_nat n = (if (0 <=? pz)%Z then Z.to_N (pz + Z.of_N (N.of_nat d)) else N.of_nat d)
                 | None => Z.to_N (pz + 1) <= N.of_nat n /\ exists txt, first_text lines = Some (O, txt) /\ txt <> []
                 end).
  { destruct (bc_explicit b) as [d|] eqn:Ee; [exact (cf_explicit0 d eq_refl)|]. split; [exact cf_pmin0|]. exact (cf_auto0 eq_refl Htext). }
  unfold case_value. fold lines. unfold case_block in Hchars. fold n lines in Hchars. unfold case_rest.
  destruct (bc_eof b) as [| |r] eqn:Eeof.
  - (* a final line break, then the end of the input *)
    apply (block_scalar_lines_k (bc_brk b) s F (bc_literal b) (bc_chomp b) (bc_explicit b) (bc_digit_first b) (bc_hc b) lines O [] n pz inds);
      auto.
    + rewrite Hchars. cbn [sps repeat app]. rewrite app_nil_r. reflexivity.
    + right. left. split; [reflexivity|lia].
    + discriminate.
  - (* no final line break *)
    apply (block_scalar_lines_eof_k (bc_brk b) s F (bc_literal b) (bc_chomp b) (bc_explicit b) (bc_digit_first b) (bc_hc b) lines n pz inds);
      auto.
    unfold lines, case_lines. apply last_line_of_raw. exact cf_eof0.
  - (* a less indented line, or a document marker *)
    destruct (rest_decompose (kbrk (bc_brk b)) (bc_parent b) n (has_text lines) r (kbrk_style _) cf_eof0)
      as [j [r0 [c [Er [Hc [Hne [H32 [H9 [H0 [Hcb [Hsnd Hshape]]]]]]]]]]].
    change (with_breaks (bc_brk b) r) with (wbrk (kbrk (bc_brk b)) r). rewrite Hsnd.
    apply (block_scalar_lines_k (bc_brk b) s F (bc_literal b) (bc_chomp b) (bc_explicit b) (bc_digit_first b) (bc_hc b) lines j
             (wbrk (kbrk (bc_brk b)) r0) n pz inds); auto.
    + rewrite Hchars, render_rest_app, Er. rewrite !with_breaks_wbrk, !wbrk_app, wbrk_sps. reflexivity.
    + (* ends_after *)
      destruct Hshape as [[_ [Hj _]]|Hp]; [left; exact Hj|].
      destruct (bc_parent b) as [p|] eqn:Ep.
      * left. subst pz. cbn [parent_z] in cf_pmin0. lia.
      * destruct Hp as [Hj Hd]. destruct n as [|n']; [right; right; auto|left; lia].
    + rewrite Hc. exact H32.
    + rewrite Hc. exact Hcb.
    + intros E. congruence.
    + intros _. rewrite Hc. exact H0.
Qed.

(* the theorem, scalars without content *)
Lemma hd0_blank_lines_tab brk ks X : break_style brk -> hd0 X <> 9 -> hd0 (blank_lines brk ks ++ X) <> 9.
Proof.
  intros Hb HX. destruct ks as [|[|k] ks]; [exact HX| |].
  - cbn [blank_lines flat_map]. change (sps 0 ++ brk) with brk. rewrite <- !app_assoc. apply (brk_not_tab brk Hb).
  - discriminate.
Qed.

Lemma blank_text brk n literal c explicit digit_first hc ks : header_tail hc ->
  wbrk brk (render_block n literal c explicit digit_first hc (map Blank ks) (EofRest []))
  = header literal c explicit digit_first ++ hc ++ brk ++ blank_lines brk ks.
Proof.
  intros Hhc. unfold render_block. rewrite flat_map_shift, wbrk_head by exact Hhc.
  rewrite wbrk_lf, app_nil_r, render_blanks. reflexivity.
Qed.

Lemma blank_text_eof brk n literal c explicit digit_first hc ks j : header_tail hc ->
  wbrk brk (render_block n literal c explicit digit_first hc (map Blank (ks ++ [j])) EofNone)
  = header literal c explicit digit_first ++ hc ++ brk ++ blank_lines brk ks ++ sps j.
Proof.
  intros Hhc. unfold render_block. rewrite app_nil_r, map_app, flat_map_app. cbn [map flat_map render_line].
  rewrite app_nil_r, flat_map_shift, wbrk_head by exact Hhc.
  rewrite wbrk_lf, wbrk_app, render_blanks. change (spaces j) with (sps j). rewrite wbrk_sps. reflexivity.
Qed.

Lemma case_without_text : forall b (s : sc strin) F inds,
  case_facts b F -> has_text (case_lines b) = false ->
  si_chars (sc_in s) = case_block b ->
  unroll_nb (sc_indents s) (sc_indent s) = (parent_z (bc_parent b), inds) ->
  yields (bc_literal b) (case_value b) (case_rest b) (scan_block_scalar str_ops F (bc_literal b) s).
Proof.
  intros b s F inds Hf Htext Hchars Hun. destruct Hf.
  set (n := case_indent b) in *. set (pz := parent_z (bc_parent b)) in *.
  unfold case_lines in *. fold n in Htext, cf_lines0, cf_col1, cf_len0, cf_auto0, cf_eof0, cf_nF0.
  destruct (no_text_blanks n (bc_raw b) Htext) as [ks [Eraw [El Hle]]].
  unfold case_value, case_block, case_lines in *. fold n in Hchars |- *. rewrite El in *.
  assert (HksF : Forall (fun k => (k < F)%nat) ks).
  { apply Forall_forall. intros k Hk. rewrite Forall_forall in cf_lines0.
    specialize (cf_lines0 (Blank k) (in_map Blank ks k Hk)). cbn [line_ok] in cf_lines0. lia. }
  rewrite map_length in cf_len0.
  assert (Hexp : forall ks' j, Forall (fun k => (k <= n)%nat) (j :: ks') ->
            match bc_explicit b with
            | Some d => (1 <= d <= 9)%nat /\
                        let n0 := if (0 <=? pz)%Z then Z.to_N (pz + Z.of_N (N.of_nat d)) else N.of_nat d in
                        Forall (fun k => N.of_nat k <= n0) (j :: ks')
            | None => True
            end).
  { intros ks' j Hj. destruct (bc_explicit b) as [d|] eqn:Ee; [|exact I].
    destruct (cf_explicit0 d eq_refl) as [Hd En]. split; [exact Hd|]. cbv zeta. rewrite <- En.
    apply Forall_impl with (2 := Hj). intros k Hk. lia. }
  assert (HnF : (0 < F)%nat) by lia.
  pose proof (kbrk_style (bc_brk b)) as Hb.
  unfold case_rest.
  destruct (bc_eof b) as [| |r] eqn:Eeof.
  - (* a final line break, then the end of the input *)
    assert (Eel : map Blank ks = empty_lines ks O []) by (unfold empty_lines; rewrite app_nil_r; reflexivity).
    rewrite Eel.
    apply (block_scalar_empty_k (bc_brk b) s F (bc_literal b) (bc_chomp b) (bc_explicit b) (bc_digit_first b) (bc_hc b) ks O [] pz inds);
      [ | exact Hun | exact cf_hc0 | exact cf_hcF0 | | lia | discriminate | reflexivity | | left; reflexivity | ].
    + rewrite Hchars. rewrite with_breaks_wbrk.
      change (render_block n (bc_literal b) (bc_chomp b) (bc_explicit b) (bc_digit_first b) (bc_hc b) (map Blank ks) EofNewline)
        with (render_block n (bc_literal b) (bc_chomp b) (bc_explicit b) (bc_digit_first b) (bc_hc b) (map Blank ks) (EofRest [])).
      rewrite blank_text by exact cf_hc0. cbn [sps repeat app]. rewrite app_nil_r. reflexivity.
    + constructor; [exact HnF|exact HksF].
    + apply hd0_blank_lines_tab; [exact Hb|discriminate].
    + apply Hexp. constructor; [lia|exact Hle].
  - (* no final line break *)
    rewrite Eraw, <- map_rev in cf_eof0.
    destruct (rev ks) as [|j rk] eqn:Erev; apply (f_equal (@rev nat)) in Erev; rewrite rev_involutive in Erev; subst ks.
    + (* the input ends on the header line *)
      cbn [rev map] in *.
      replace (block_value (bc_literal b) (bc_chomp b) []) with (@nil N) by (destruct (bc_chomp b); reflexivity).
      apply (block_scalar_header_eof [10] s F (bc_literal b) (bc_chomp b) (bc_explicit b) (bc_digit_first b) (bc_hc b) pz inds);
        [ | exact Hun | exact cf_hc0 | exact cf_hcF0 | ].
      * rewrite Hchars. rewrite with_breaks_wbrk. unfold render_block. cbn [flat_map]. rewrite !app_nil_r.
        rewrite <- (app_nil_r (bc_hc b)) at 1. rewrite wbrk_head by exact cf_hc0. rewrite app_nil_r. reflexivity.
      * destruct (bc_explicit b) as [d|]; [exact (proj1 (cf_explicit0 d eq_refl))|exact I].
    + (* the input ends inside a last line of j >= 1 spaces *)
      cbn [map rev] in *. destruct cf_eof0 as [Hj0|Hbad]; [|congruence].
      apply Forall_app in Hle. destruct Hle as [Hle Hj]. apply Forall_app in HksF. destruct HksF as [HksF HjF].
      rewrite app_length in cf_len0. cbn [length] in cf_len0.
      assert (Eel : map Blank (rev rk ++ [j]) = empty_lines (rev rk) j []) by (unfold empty_lines; destruct j; [congruence|reflexivity]).
      rewrite Eel.
      apply (block_scalar_empty_k (bc_brk b) s F (bc_literal b) (bc_chomp b) (bc_explicit b) (bc_digit_first b) (bc_hc b)
               (rev rk) j [] pz inds);
        [ | exact Hun | exact cf_hc0 | exact cf_hcF0 | | lia | discriminate | reflexivity | | left; reflexivity | ].
      * rewrite Hchars. rewrite with_breaks_wbrk. rewrite blank_text_eof by exact cf_hc0. rewrite app_nil_r. reflexivity.
      * constructor; [exact (Forall_inv HjF)|exact HksF].
      * apply hd0_blank_lines_tab; [exact Hb|]. destruct j; [congruence|discriminate].
      * apply Hexp. constructor; [exact (Forall_inv Hj)|exact Hle].
  - (* a line of an enclosing collection, or a document marker *)
    rewrite Htext in cf_eof0.
    destruct (rest_decompose (kbrk (bc_brk b)) (bc_parent b) n false r Hb cf_eof0)
      as [j [r0 [c [Er [Hc [Hne [H32 [H9 [H0 [Hcb [Hsnd Hshape]]]]]]]]]]].
    change (with_breaks (bc_brk b) r) with (wbrk (kbrk (bc_brk b)) r). rewrite Hsnd.
    set (r' := wbrk (kbrk (bc_brk b)) r0) in *.
    assert (Hjn : (j <= n)%nat).
    { destruct Hshape as [[_ [_ Hbad]]|Hp]; [discriminate|]. destruct (bc_parent b) as [p|] eqn:Ep.
      - subst pz. cbn [parent_z] in cf_pmin0. lia.
      - destruct Hp as [-> _]. lia. }
    assert (Eel : map Blank ks = empty_lines ks j r').
    { unfold empty_lines. destruct r'; [congruence|rewrite app_nil_r; reflexivity]. }
    rewrite Eel.
    apply (block_scalar_empty_k (bc_brk b) s F (bc_literal b) (bc_chomp b) (bc_explicit b) (bc_digit_first b) (bc_hc b) ks j r' pz inds);
      [ | exact Hun | exact cf_hc0 | exact cf_hcF0 | | lia | rewrite Hc; exact H32 | rewrite Hc; exact Hcb | | | apply Hexp; constructor; [exact Hjn|exact Hle] ].
    + rewrite Hchars, render_rest_app, Er. rewrite !with_breaks_wbrk, !wbrk_app, wbrk_sps.
      rewrite blank_text by exact cf_hc0. rewrite <- !app_assoc. reflexivity.
    + constructor; [lia|exact HksF].
    + apply hd0_blank_lines_tab; [exact Hb|]. destruct j; [cbn [sps repeat app]; rewrite Hc; exact H9|discriminate].
    + right. destruct Hshape as [[_ [_ Hbad]]|Hp]; [discriminate|]. destruct (bc_parent b) as [p|] eqn:Ep.
      * left. split; [rewrite Hc; exact H0|]. subst pz. cbn [parent_z]. lia.
      * right. exact Hp.
Qed.

(* the theorem *)
Definition leading_tab_b (b : bcase) : bool := Nat.eqb (case_indent b) O && (first_char O (case_lines b) =? 9).
Lemma leading_tab_spec b : leading_tab_b b = false -> ~ leading_tab b.
Proof.
  unfold leading_tab_b, leading_tab. intros H [Hn Hc]. rewrite Hn, Hc in H. discriminate H.
Qed.

(* Every case of the specification outside the leading-tab class, in every break style: from a scanner state that
   stands at the indicator, with the parent indentation of the case (what unroll_non_block_indents leaves), the
   string input holding the text of the case from the indicator on, and enough fuel, scan_block_scalar returns the
   scalar token with exactly the specified value and stops at the line that follows the scalar. *)
Theorem block_scalar_case : forall b (s : sc strin) F inds,
  case_ok b = true -> leading_tab_b b = false ->
  si_chars (sc_in s) = case_block b ->
  unroll_nb (sc_indents s) (sc_indent s) = (parent_z (bc_parent b), inds) ->
  (case_fuel b < F)%nat ->
  exists sp s', scan_block_scalar str_ops F (bc_literal b) s
                = Ok ((sp, TScalar (if bc_literal b then Literal else Folded) (case_value b)), s')
                /\ si_chars (sc_in s') = case_rest b.
Proof.
  intros b s F inds Hok Htab Hchars Hun HF.
  pose proof (case_ok_facts b F Hok HF) as Hf. apply leading_tab_spec in Htab.
  destruct (has_text (case_lines b)) eqn:Ht.
  - exact (case_with_text b s F inds Hf Ht Htab Hchars Hun).
  - exact (case_without_text b s F inds Hf Ht Hchars Hun).
Qed.

(* a top-level case on the scanner's initial state placed at the indicator *)
Corollary block_scalar_case_top : forall b F,
  case_ok b = true -> leading_tab_b b = false -> bc_parent b = None -> (case_fuel b < F)%nat ->
  exists sp s', scan_block_scalar str_ops F (bc_literal b) (init_sc {| si_chars := case_block b; si_look := 0 |})
                = Ok ((sp, TScalar (if bc_literal b then Literal else Folded) (case_value b)), s')
                /\ si_chars (sc_in s') = case_rest b.
Proof.
  intros b F Hok Htab Hp HF. apply (block_scalar_case b _ F []); auto. rewrite Hp. reflexivity.
Qed.
