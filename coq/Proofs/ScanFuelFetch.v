(* C01, bounded work (see SCANFUEL.md): the token-level skeleton (fetch_*, fetch_next_token, fetch_more_tokens,
   next_token) over the string input never runs out of fuel, and the number of tokens it produces is linear in the
   number of characters it consumes.
   Potential [phi s] = tokens already handed out + tokens queued + indent records that still owe a BlockEnd.
   One call of fetch_next_token is (a) the stream-start step (phi + 1), or (b) consumes at least one character and
   raises phi by at most 5 (fetch_value: Key, FlowMappingStart, BlockMappingStart + the BlockEnd it owes, Value), or
   (c) is fetch_stream_end (phi + 1), after which no simple key is possible and the queue ends with StreamEnd
   ([Done]), so fetch_more_tokens never fetches again.
   The character-level scanners enter through their fuel contracts (ScanFuel.v) and their frame lemmas
   (ScanFuelFrame.v), both Section hypotheses here. *)
From Coq Require Import List NArith ZArith Bool Arith Lia.
Import ListNotations.
Require Import Parser SBase SPrim SDir SScalar SFetch DispatchTie ScanFuel ScanFuelPrim ScanFuelFrameDef.
Require ScanSkel.
Local Open Scope nat_scope.

Ltac sproj :=
  cbn [sc_in sc_mark sc_tokens sc_stream_start sc_stream_end sc_adjacent sc_ska sc_sks sc_indent sc_indents
       sc_flow_level sc_tokens_parsed sc_token_available sc_lws sc_ifms
       set_in set_mark set_tokens set_flags set_ska set_lws set_adj set_ta set_ss set_se
       set_struct set_sks set_indent set_fl set_tp set_ifms upd].
Ltac sproj_in H :=
  cbn [sc_in sc_mark sc_tokens sc_stream_start sc_stream_end sc_adjacent sc_ska sc_sks sc_indent sc_indents
       sc_flow_level sc_tokens_parsed sc_token_available sc_lws sc_ifms
       set_in set_mark set_tokens set_flags set_ska set_lws set_adj set_ta set_ss set_se
       set_struct set_sks set_indent set_fl set_tp set_ifms upd] in H.

(* the potential *)
(* what no fetch step changes: the stream-start flag (but for fetch_stream_start) and the number of tokens handed out *)
Definition ssb (s : fst_) : bool * N := (sc_stream_start s, sc_tokens_parsed s).
Definition sst (s : fst_) : bool := sc_stream_start s.
Definition tpn (s : fst_) : nat := N.to_nat (sc_tokens_parsed s).
Lemma ssb_eq (s s' : fst_) : ssb s' = ssb s -> sst s' = sst s /\ tpn s' = tpn s.
Proof. unfold ssb, sst, tpn. intros E. injection E as E1 E2. rewrite E1, E2. split; reflexivity. Qed.
Definition phi (s : fst_) : nat := tpn s + length (sc_tokens s) + npend (sc_indents s).

(* a skeleton step: the input is not touched, the stream-start flag is kept, the potential grows by at most k *)
Definition skel (k : nat) (s s' : fst_) : Prop :=
  sc_in s' = sc_in s /\ ssb s' = ssb s /\ phi s' <= phi s + k.

Lemma skel_refl s : skel 0 s s.
Proof. unfold skel. repeat split; lia. Qed.
Lemma skel_trans k1 k2 a b c : skel k1 a b -> skel k2 b c -> skel (k1 + k2) a c.
Proof. unfold skel. intros (A1 & A2 & A3) (B1 & B2 & B3). repeat split; [congruence|congruence|lia]. Qed.
Lemma skel_weaken k k' s s' : skel k s s' -> k <= k' -> skel k' s s'.
Proof. unfold skel. intros (A1 & A2 & A3) H. repeat split; [assumption|assumption|lia]. Qed.
Lemma skel_rl k s s' : skel k s s' -> rl s' = rl s.
Proof. intros (A & _). unfold rl, frem. rewrite A. reflexivity. Qed.
Lemma skel_lk k s s' : skel k s s' -> lk s' = lk s.
Proof. intros (A & _). unfold lk. rewrite A. reflexivity. Qed.
Lemma skel_fnth k s s' : skel k s s' -> forall i, fnth s' i = fnth s i.
Proof. intros (A & _) i. unfold fnth, frem. rewrite A. reflexivity. Qed.

Lemma fkeeps_phi (s s' : fst_) : fkeeps s s' -> phi s' = phi s /\ ssb s' = ssb s.
Proof.
  intros (A1 & A2 & A3 & A4 & A5 & A6 & A7 & A8). unfold phi, tpn, ssb. rewrite A1, A2, A3, A8. split; reflexivity.
Qed.
(* a callee contract [P] together with its frame lemma *)
Lemma use_fr {A} (m : FM A) (P Q : A -> fst_ -> Prop) s :
  frames m -> fwp m P s -> (forall a s', P a s' -> ssb s' = ssb s -> phi s' = phi s -> Q a s') -> fwp m Q s.
Proof.
  unfold fwp, frames. intros HF. destruct (m s) as [[a s']| | |] eqn:E; auto.
  intros HP HQ. destruct (fkeeps_phi _ _ (HF _ _ _ E)) as [K S]. apply HQ; assumption.
Qed.

(* skeleton steps as a combinator language *)
Definition kstep (k : nat) (m : FM unit) : Prop :=
  forall s (Q : unit -> fst_ -> Prop), (forall s', skel k s s' -> Q tt s') -> fwp m Q s.

Lemma krun k m (Q : unit -> fst_ -> Prop) s : kstep k m -> (forall s', skel k s s' -> Q tt s') -> fwp m Q s.
Proof. intros H. apply H. Qed.
Lemma ks_weaken k k' m : kstep k m -> k <= k' -> kstep k' m.
Proof. intros H Hk s Q HQ. apply H. intros s' K. apply HQ. eapply skel_weaken; eauto. Qed.
Lemma ks_ret : kstep 0 (ret tt).
Proof. intros s Q HQ. apply fwp_ret, HQ, skel_refl. Qed.
Lemma ks_fail site mk : kstep 0 (fail site mk).
Proof. intros s Q HQ. apply fwp_fail. Qed.
Lemma ks_panic site : kstep 0 (panic site).
Proof. intros s Q HQ. apply fwp_panic. Qed.
Lemma ks_if (b : bool) k1 k2 m1 m2 : kstep k1 m1 -> kstep k2 m2 -> kstep (Nat.max k1 k2) (if b then m1 else m2).
Proof. intros H1 H2. destruct b; [eapply ks_weaken; [exact H1|lia]|eapply ks_weaken; [exact H2|lia]]. Qed.
Lemma ks_bind k1 k2 m1 m2 : kstep k1 m1 -> kstep k2 m2 -> kstep (k1 + k2) (bind m1 (fun _ => m2)).
Proof.
  intros H1 H2 s Q HQ. apply fwp_bind. apply H1. intros s1 K1. apply H2. intros s2 K2. apply HQ.
  eapply skel_trans; eauto.
Qed.
Lemma ks_get k f : (forall s0, kstep k (f s0)) -> kstep k (bind get f).
Proof. intros H s Q HQ. apply fwp_bind, fwp_get. apply H. exact HQ. Qed.
Lemma ks_mark k f : (forall m, kstep k (f m)) -> kstep k (bind mark f).
Proof. intros H s Q HQ. apply fwp_bind. unfold mark. apply fwp_gets. apply H. exact HQ. Qed.
Lemma ks_modify f : (forall s, skel 0 s (f s)) -> kstep 0 (modify f).
Proof. intros H s Q HQ. apply fwp_modify. apply HQ, H. Qed.

Ltac skel_triv :=
  cbv beta; repeat match goal with |- context [if ?b then _ else _] => destruct b end;
  repeat match goal with |- context [match sc_ifms ?s with _ => _ end] => destruct (sc_ifms s) as [|[| | |] ?] end;
  repeat match goal with |- context [match sc_sks ?s with _ => _ end] => destruct (sc_sks s) as [|? ?] end;
  unfold skel, ssb, phi, tpn; sproj; repeat split; try reflexivity; lia.

Lemma phi_push t (s : fst_) : phi (set_tokens (sc_tokens s ++ [t]) s) = phi s + 1.
Proof. unfold phi, tpn. sproj. rewrite app_length. cbn [length]. lia. Qed.

Lemma ks_push_tok t : kstep 1 (push_tok t).
Proof.
  intros s Q HQ. unfold push_tok. apply fwp_modify. apply HQ. unfold skel. rewrite phi_push. repeat split; lia.
Qed.
Lemma ks_insert_token pos t : kstep 1 (insert_token pos t).
Proof.
  intros s Q HQ. unfold fwp, insert_token. destruct (insert_at (N.to_nat pos) t (sc_tokens s)) as [l|] eqn:E; [|exact I].
  apply HQ. unfold skel, ssb, phi, tpn. sproj. rewrite (ScanSkel.insert_at_length _ _ _ _ E). repeat split; lia.
Qed.
Lemma ks_allow : kstep 0 (allow_simple_key (I:=strin)).
Proof. unfold allow_simple_key. apply ks_modify. intros s. skel_triv. Qed.
Lemma ks_disallow : kstep 0 (disallow_simple_key (I:=strin)).
Proof. unfold disallow_simple_key. apply ks_modify. intros s. skel_triv. Qed.

(* roll_indent: at most one record that owes a BlockEnd and one token *)
Lemma ks_roll_indent col number tk mk : kstep 2 (roll_indent (I:=strin) col number tk mk).
Proof.
  intros s Q HQ. unfold roll_indent. apply fwp_bind, fwp_get.
  destruct (0 <? sc_flow_level s)%N; [apply fwp_ret, HQ; eapply skel_weaken; [apply skel_refl|lia]|].
  match goal with |- fwp (let '(_, _) := ?p in _) _ _ =>
    assert (HP : npend (snd p) = npend (sc_indents s));
    [|destruct p as [ind inds]; cbn [snd] in HP] end.
  { destruct (sc_indent s <=? Z.of_N col)%Z; [|reflexivity].
    destruct (sc_indents s) as [|i r]; [reflexivity|].
    destruct (in_needs_block_end i) eqn:EN; cbn [negb snd npend]; [reflexivity|]. rewrite EN. reflexivity. }
  destruct (ind <? Z.of_N col)%Z.
  - destruct (BLOCK_NESTING_MAX <=? N.of_nat (length inds))%N; [exact I|]. apply fwp_bind, fwp_put.
    assert (HS : forall u, skel 1 (set_indent (Z.of_N col) ({| in_indent := ind; in_needs_block_end := true |} :: inds) s) u ->
                           skel 2 s u).
    { intros u (A1 & A2 & A3). unfold skel, ssb, phi, tpn in *. sproj_in A1. sproj_in A2. sproj_in A3.
      cbn [npend in_needs_block_end] in A3. repeat split; [exact A1|exact A2|lia]. }
    destruct number as [n|].
    + destruct (n <? sc_tokens_parsed s)%N; [apply fwp_panic|]. apply ks_insert_token. intros u K. apply HQ, HS, K.
    + apply ks_push_tok. intros u K. apply HQ, HS, K.
  - apply fwp_put. apply HQ. unfold skel, ssb, phi, tpn. sproj. repeat split; lia.
Qed.

(* unroll_indent: its fuel is the depth of the indent stack + 1; every popped record that owes a BlockEnd pays it *)
Definition udet (s s' : fst_) : Prop :=
  sc_in s' = sc_in s /\ ssb s' = ssb s /\ sc_sks s' = sc_sks s /\ sc_tokens_parsed s' = sc_tokens_parsed s
  /\ length (sc_tokens s') + npend (sc_indents s') = length (sc_tokens s) + npend (sc_indents s).
Lemma udet_skel s s' : udet s s' -> skel 0 s s'.
Proof. intros (A1 & A2 & A3 & A4 & A5). unfold skel, phi, tpn. rewrite A4. repeat split; [assumption|assumption|lia]. Qed.

Lemma fw_unroll_indent_go col : forall fuel s (Q : unit -> fst_ -> Prop),
  length (sc_indents s) < fuel -> (forall s', udet s s' -> Q tt s') -> fwp (unroll_indent_go fuel col) Q s.
Proof.
  induction fuel as [|fuel IH]; intros s Q Hf HQ; [lia|]. cbn [unroll_indent_go].
  apply fwp_bind, fwp_get.
  destruct (col <? sc_indent s)%Z; [|apply fwp_ret, HQ; unfold udet; repeat split; reflexivity].
  destruct (sc_indents s) as [|i r] eqn:EI; [apply fwp_panic|].
  apply fwp_bind, fwp_put. apply fwp_bind.
  cbn [length] in Hf.
  destruct (in_needs_block_end i) eqn:EN.
  - unfold push_tok. apply fwp_modify. apply IH; [sproj; lia|].
    intros s' (A1 & A2 & A3 & A4 & A5). apply HQ. unfold udet, ssb in *.
    sproj_in A1. sproj_in A2. sproj_in A3. sproj_in A4. sproj_in A5. rewrite app_length in A5. cbn [length] in A5.
    rewrite EI. cbn [npend]. rewrite EN. repeat split; [assumption|assumption|assumption|assumption|lia].
  - apply fwp_ret. apply IH; [sproj; lia|].
    intros s' (A1 & A2 & A3 & A4 & A5). apply HQ. unfold udet, ssb in *.
    sproj_in A1. sproj_in A2. sproj_in A3. sproj_in A4. sproj_in A5.
    rewrite EI. cbn [npend]. rewrite EN. repeat split; [assumption|assumption|assumption|assumption|lia].
Qed.
Lemma fw_unroll_indent col (Q : unit -> fst_ -> Prop) s :
  (forall s', udet s s' -> Q tt s') -> fwp (unroll_indent col) Q s.
Proof.
  intros HQ. unfold unroll_indent. apply fwp_bind, fwp_get.
  destruct (0 <? sc_flow_level s)%N; [apply fwp_ret, HQ; unfold udet; repeat split; reflexivity|].
  apply fw_unroll_indent_go; [lia|exact HQ].
Qed.
Lemma ks_unroll_indent col : kstep 0 (unroll_indent (I:=strin) col).
Proof. intros s Q HQ. apply fw_unroll_indent. intros s' U. apply HQ, udet_skel, U. Qed.

Lemma ks_roll_one : kstep 0 (roll_one_col_indent (I:=strin)).
Proof.
  intros s Q HQ. unfold roll_one_col_indent. apply fwp_bind, fwp_get.
  destruct (_ && _); [|apply fwp_ret, HQ, skel_refl].
  apply fwp_put, HQ. unfold skel, ssb, phi, tpn. sproj. cbn [npend in_needs_block_end]. repeat split; lia.
Qed.

(* simple keys *)
Lemma ks_save : kstep 0 (save_simple_key (I:=strin)).
Proof.
  intros s Q HQ. unfold save_simple_key. apply fwp_bind, fwp_get.
  destruct (sc_ska s); [|apply fwp_ret, HQ, skel_refl].
  apply fwp_bind. apply fwp_mono with (Q := fun (_ : bool) s' => s' = s).
  - destruct (_ && _); [|apply fwp_ret; reflexivity]. destruct (sc_indents s); [apply fwp_panic|apply fwp_ret; reflexivity].
  - intros rq s' ->. apply fwp_put, HQ. skel_triv.
Qed.
Lemma ks_remove : kstep 0 (remove_simple_key (I:=strin)).
Proof.
  intros s Q HQ. unfold remove_simple_key. apply fwp_bind, fwp_get.
  destruct (sc_sks s) as [|k r]; [apply fwp_panic|].
  destruct (_ && _); [apply fwp_fail|]. apply fwp_put, HQ. skel_triv.
Qed.
Lemma ks_stale : kstep 0 (stale_simple_keys (I:=strin)).
Proof.
  intros s Q HQ. unfold stale_simple_keys. apply fwp_bind, fwp_get.
  destruct (existsb _ _); [apply fwp_fail|]. apply fwp_put, HQ. unfold skel, ssb, phi, tpn; sproj; repeat split; lia.
Qed.
Lemma ks_eim mk : kstep 1 (end_implicit_mapping (I:=strin) mk).
Proof.
  intros s Q HQ. unfold end_implicit_mapping. apply fwp_bind, fwp_get.
  destruct (sc_ifms s) as [|[| | |] r]; try (apply fwp_ret, HQ; eapply skel_weaken; [apply skel_refl|lia]).
  - apply fwp_bind, fwp_put. apply ks_push_tok. intros s' (A1 & A2 & A3). apply HQ.
    unfold skel, ssb, phi, tpn in *. sproj_in A1. sproj_in A2. sproj_in A3. repeat split; [assumption|assumption|lia].
  - apply fwp_put, HQ. unfold skel, ssb, phi, tpn; sproj; repeat split; lia.
Qed.
Lemma ks_incr : kstep 0 (increase_flow_level (I:=strin)).
Proof.
  intros s Q HQ. unfold increase_flow_level. apply fwp_bind, fwp_get.
  destruct (sc_flow_level s =? FLOW_LEVEL_MAX)%N; [exact I|]. apply fwp_put, HQ. unfold skel, ssb, phi, tpn; sproj; repeat split; lia.
Qed.
Lemma ks_check_closer seq : kstep 0 (check_flow_closer (I:=strin) seq).
Proof.
  intros s Q HQ. unfold check_flow_closer. apply fwp_bind, fwp_get.
  destruct (sc_ifms s) as [|st r]; [apply fwp_ret, HQ, skel_refl|]. cbv zeta.
  destruct (Bool.eqb _ _); [apply fwp_ret, HQ, skel_refl|apply fwp_fail].
Qed.
Lemma ks_decr : kstep 0 (decrease_flow_level (I:=strin)).
Proof.
  intros s Q HQ. unfold decrease_flow_level. apply fwp_bind, fwp_get.
  destruct (0 <? sc_flow_level s)%N; [|apply fwp_ret, HQ, skel_refl].
  destruct (sc_sks s) as [|k r]; [apply fwp_panic|]. apply fwp_put, HQ. unfold skel, ssb, phi, tpn; sproj; repeat split; lia.
Qed.

Ltac ks_one :=
  cbv beta;
  lazymatch goal with
  | |- kstep _ (ret tt) => apply ks_ret
  | |- kstep _ (fail _ _) => apply ks_fail
  | |- kstep _ (panic _) => apply ks_panic
  | |- kstep _ (if _ then _ else _) => apply ks_if
  | |- kstep _ (bind get _) => apply ks_get; intros ?
  | |- kstep _ (bind mark _) => apply ks_mark; intros ?
  | |- kstep _ (bind _ _) => apply ks_bind
  | |- kstep _ (push_tok _) => apply ks_push_tok
  | |- kstep _ (insert_token _ _) => apply ks_insert_token
  | |- kstep _ allow_simple_key => apply ks_allow
  | |- kstep _ disallow_simple_key => apply ks_disallow
  | |- kstep _ roll_one_col_indent => apply ks_roll_one
  | |- kstep _ save_simple_key => apply ks_save
  | |- kstep _ remove_simple_key => apply ks_remove
  | |- kstep _ stale_simple_keys => apply ks_stale
  | |- kstep _ (end_implicit_mapping _) => apply ks_eim
  | |- kstep _ (check_flow_closer _) => apply ks_check_closer
  | |- kstep _ increase_flow_level => apply ks_incr
  | |- kstep _ decrease_flow_level => apply ks_decr
  | |- kstep _ (roll_indent _ _ _ _) => apply ks_roll_indent
  | |- kstep _ (unroll_indent _) => apply ks_unroll_indent
  | |- kstep _ (modify _) => apply ks_modify; intros ?; skel_triv
  end.
Ltac ks_auto := repeat ks_one.

(* one skeleton step of a sequence; leaves the facts about the new state in the context *)
Ltac sks :=
  apply fwp_bind; cbv beta;
  (eapply krun; [solve [ks_auto] | ]);
  let s' := fresh "s" in let K := fresh "K" in
  let R := fresh "R" in let L := fresh "L" in let N0 := fresh "E" in let S := fresh "S" in let P := fresh "P" in
  intros s' K; cbv beta;
  pose proof (skel_rl _ _ _ K) as R; pose proof (skel_lk _ _ _ K) as L; pose proof (skel_fnth _ _ _ K 0) as N0;
  destruct K as (_ & S & P).
Ltac wb := apply fwp_bind; cbv beta.
Ltac wget := apply fwp_bind, fwp_get; cbv beta.
Ltac wmark := apply fwp_bind; unfold mark at 1; apply fwp_gets; cbv beta.
Ltac wpeek := apply fwp_bind, fwp_peek; cbv beta.
Ltac wpeekn := apply fwp_bind, fwp_peekn; cbv beta.
Ltac fok := unfold fuel_ok in *; lia.

(* ---------------- input steps ----------------
   the rules of ScanFuelPrim.v, joined to what the run shows of the flags and the potential *)
Lemma fw_keep {A} (m : FM A) (Q : A -> fst_ -> Prop) s :
  fwp m (fun _ s' => ssb s' = ssb s /\ phi s' = phi s) s ->
  fwp m (fun a s' => ssb s' = ssb s -> phi s' = phi s -> Q a s') s -> fwp m Q s.
Proof.
  intros HK HW. eapply fwp_mono; [exact (fwp_and _ _ _ _ HK HW)|]. cbv beta. intros a s' [[S P] H]. exact (H S P).
Qed.
Lemma fw_look n (Q : unit -> fst_ -> Prop) s :
  (forall s', rl s' = rl s -> lk s <= lk s' -> n <= lk s' -> (forall i, fnth s' i = fnth s i) -> ssb s' = ssb s -> phi s' = phi s -> Q tt s') ->
  fwp (look str_ops n) Q s.
Proof.
  intros HQ. apply fw_keep; [split; reflexivity|]. apply fwp_look_rl. intros s' _ R C L K _ S P. apply HQ; assumption.
Qed.
Lemma fw_look_ch (Q : chr -> fst_ -> Prop) s :
  (forall s', rl s' = rl s -> ssb s' = ssb s -> phi s' = phi s -> Q (fnth s 0) s') -> fwp (look_ch str_ops) Q s.
Proof.
  intros HQ. apply fw_keep; [split; reflexivity|]. apply fwp_look_ch_rl. intros s' _ R _ _ _ _ S P. apply HQ; assumption.
Qed.
(* consuming characters, the first of which is there *)
Lemma fw_skip_non_blank (Q : unit -> fst_ -> Prop) s :
  fnth s 0 <> 0%N -> (forall s', rl s' < rl s -> lk s' = lk s -> ssb s' = ssb s -> phi s' = phi s -> Q tt s') ->
  fwp (skip_non_blank str_ops) Q s.
Proof.
  intros NZ HQ. apply fw_keep; [split; reflexivity|]. apply fwp_skip_non_blank_real; [exact NZ|].
  intros s' D _ L S P. apply HQ; [lia|assumption..].
Qed.
Lemma fw_skip_n_non_blank n (Q : unit -> fst_ -> Prop) s :
  1 <= n -> fnth s 0 <> 0%N -> (forall s', rl s' < rl s -> lk s' = lk s -> ssb s' = ssb s -> phi s' = phi s -> Q tt s') ->
  fwp (skip_n_non_blank str_ops n) Q s.
Proof.
  intros Hn NZ HQ. pose proof (fnth0_nonzero_rl s NZ). apply fw_keep; [split; reflexivity|]. apply fwp_skip_n_non_blank.
  intros s' D _ L S P. apply HQ; [lia|assumption..].
Qed.

(* fetch_* *)
Section FuelFetch.
Hypothesis H_stnt : fuel_skip_to_next_token.
Hypothesis H_ws : fuel_skip_ws_to_eol.
Hypothesis H_yw : fuel_skip_yaml_whitespace.
Hypothesis H_dir : fuel_scan_directive.
Hypothesis H_tag : fuel_scan_tag.
Hypothesis H_anchor : fuel_scan_anchor.
Hypothesis H_flow : fuel_scan_flow_scalar.
Hypothesis H_plain : fuel_scan_plain_scalar.
Hypothesis H_block : fuel_scan_block_scalar.
Hypothesis Fr_stnt : forall F, frames (skip_to_next_token str_ops F).
Hypothesis Fr_ws : forall F stb, frames (skip_ws_to_eol str_ops F stb).
Hypothesis Fr_yw : forall F, frames (skip_yaml_whitespace str_ops F).
Hypothesis Fr_dir : forall F, frames (scan_directive str_ops F).
Hypothesis Fr_tag : forall F, frames (scan_tag str_ops F).
Hypothesis Fr_anchor : forall F alias, frames (scan_anchor str_ops F alias).
Hypothesis Fr_flow : forall F single, frames (scan_flow_scalar str_ops F single).
Hypothesis Fr_plain : forall F, frames (scan_plain_scalar str_ops F).
Hypothesis Fr_block : forall F literal, frames (scan_block_scalar str_ops F literal).

(* a fetch_* that consumes: at least one character is gone, the potential grew by at most 5 *)
Definition cpost (s : fst_) : unit -> fst_ -> Prop :=
  fun _ s' => rl s' < rl s /\ ssb s' = ssb s /\ phi s' <= phi s + 5.

Lemma fin_push t s0 s : rl s < rl s0 -> ssb s = ssb s0 -> phi s + 1 <= phi s0 + 5 -> fwp (push_tok t) (cpost s0) s.
Proof using.
  intros A B C. unfold push_tok. apply fwp_modify. unfold cpost. rewrite phi_push. repeat split; [exact A|exact B|lia].
Qed.
Ltac fin := cbv beta; apply fin_push; [lia|congruence|lia].
Ltac nz := congruence.

Lemma fw_fetch_directive F s :
  fuel_ok F s -> fnth s 0 <> 0%N -> 1 <= lk s -> fwp (fetch_directive str_ops F) (cpost s) s.
Proof using H_dir Fr_dir.
  intros FO NZ LK. unfold fetch_directive. sks. sks. sks.
  wb. eapply use_fr; [apply Fr_dir|apply H_dir; [fok|nz]|]. intros t s3 [R3 L3] S3 P3. fin.
Qed.

Lemma fw_fetch_tag F s :
  fuel_ok F s -> fnth s 0 <> 0%N -> 1 <= lk s -> fwp (fetch_tag str_ops F) (cpost s) s.
Proof using H_tag Fr_tag.
  intros FO NZ LK. unfold fetch_tag. sks. sks.
  wb. eapply use_fr; [apply Fr_tag|apply H_tag; [fok|nz]|]. intros t s3 [R3 L3] S3 P3. fin.
Qed.

Lemma fw_fetch_anchor F alias s :
  fuel_ok F s -> fnth s 0 <> 0%N -> 1 <= lk s -> fwp (fetch_anchor str_ops F alias) (cpost s) s.
Proof using H_anchor Fr_anchor.
  intros FO NZ LK. unfold fetch_anchor. sks. sks.
  wb. eapply use_fr; [apply Fr_anchor|apply H_anchor; [fok|nz]|]. intros t s3 [R3 L3] S3 P3. fin.
Qed.

Lemma fw_fetch_block_scalar F literal s :
  fuel_ok F s -> fnth s 0 <> 0%N -> 1 <= lk s -> fwp (fetch_block_scalar str_ops F literal) (cpost s) s.
Proof using H_block Fr_block.
  intros FO NZ LK. unfold fetch_block_scalar. sks. sks.
  wb. eapply use_fr; [apply Fr_block|apply H_block; [fok|nz|lia]|]. intros t s3 [R3 L3] S3 P3. fin.
Qed.

Lemma fw_fetch_plain_scalar F s :
  fuel_ok F s -> fnth s 0 <> 0%N -> 1 <= lk s -> fwp (fetch_plain_scalar str_ops F) (cpost s) s.
Proof using H_plain Fr_plain.
  intros FO NZ LK. unfold fetch_plain_scalar. sks. sks.
  wb. eapply use_fr; [apply Fr_plain|apply H_plain; [fok|lia]|]. intros t s3 [R3 L3] S3 P3. fin.
Qed.

Lemma fw_fetch_flow_scalar F single s :
  fuel_ok F s -> fnth s 0 <> 0%N -> 1 <= lk s -> fwp (fetch_flow_scalar str_ops F single) (cpost s) s.
Proof using H_flow Fr_flow H_stnt Fr_stnt.
  intros FO NZ LK. unfold fetch_flow_scalar. sks. sks.
  wb. eapply use_fr; [apply Fr_flow|apply H_flow; [fok|nz]|]. intros t s3 [R3 L3] S3 P3. cbv beta.
  wb. eapply use_fr; [apply Fr_stnt|apply H_stnt; fok|]. intros u s4 [R4 L4] S4 P4. cbv beta.
  sks. fin.
Qed.

Lemma fw_fetch_flow_collection_start F seq s :
  fuel_ok F s -> fnth s 0 <> 0%N -> 1 <= lk s -> fwp (fetch_flow_collection_start str_ops F seq) (cpost s) s.
Proof using H_ws Fr_ws.
  intros FO NZ LK. unfold fetch_flow_collection_start. sks. sks. sks. sks. wmark.
  wb. apply fw_skip_non_blank; [nz|]. intros s5 R5 L5 S5 P5. cbv beta.
  sks.
  wb. eapply use_fr; [apply Fr_ws|apply H_ws; fok|]. intros tw s7 [R7 L7] S7 P7. cbv beta.
  wmark. fin.
Qed.

Lemma fw_fetch_flow_collection_end F seq s :
  fuel_ok F s -> fnth s 0 <> 0%N -> 1 <= lk s -> fwp (fetch_flow_collection_end str_ops F seq) (cpost s) s.
Proof using H_ws Fr_ws.
  intros FO NZ LK. unfold fetch_flow_collection_end. sks. sks. sks. sks. sks. sks. wmark.
  wb. apply fw_skip_non_blank; [nz|]. intros s6 R6 L6 S6 P6. cbv beta.
  wb. eapply use_fr; [apply Fr_ws|apply H_ws; fok|]. intros tw s7 [R7 L7] S7 P7. cbv beta.
  sks. wmark. fin.
Qed.

Lemma fw_fetch_flow_entry F s :
  fuel_ok F s -> fnth s 0 <> 0%N -> 1 <= lk s -> fwp (fetch_flow_entry str_ops F) (cpost s) s.
Proof using H_ws Fr_ws.
  intros FO NZ LK. unfold fetch_flow_entry. sks. sks. wmark. sks.
  wb. apply fw_skip_non_blank; [nz|]. intros s4 R4 L4 S4 P4. cbv beta.
  wb. eapply use_fr; [apply Fr_ws|apply H_ws; fok|]. intros tw s5 [R5 L5] S5 P5. cbv beta.
  wmark. fin.
Qed.

Lemma fw_fetch_document_indicator t s (Q : unit -> fst_ -> Prop) :
  fnth s 0 <> 0%N -> (forall s', rl s' < rl s -> lk s <= lk s' -> ssb s' = ssb s -> phi s' <= phi s + 1 -> Q tt s') ->
  fwp (fetch_document_indicator str_ops t) Q s.
Proof using.
  intros NZ HQ. unfold fetch_document_indicator. sks. sks. sks. wmark.
  wb. apply fw_skip_n_non_blank; [lia|nz|]. intros s4 R4 L4 S4 P4. cbv beta.
  wmark. unfold push_tok. apply fwp_modify. apply HQ; [change (rl s4 < rl s); lia|change (lk s <= lk s4); lia|change (ssb s4 = ssb s); congruence|rewrite phi_push; lia].
Qed.

Lemma fw_fetch_block_entry F s :
  fuel_ok F s -> fnth s 0 <> 0%N -> 1 <= lk s -> fwp (fetch_block_entry str_ops F) (cpost s) s.
Proof using H_ws Fr_ws.
  intros FO NZ LK. unfold fetch_block_entry. wget.
  dif; [apply fwp_fail|]. dif; [apply fwp_fail|].
  wb. apply fwp_mono with (Q := fun _ s' => s' = s).
  { destruct (last (sc_tokens s) (span_empty mk0, TStreamEnd)) as [sp tk].
    destruct tk; try (apply fwp_ret; reflexivity); (dif; [apply fwp_fail|apply fwp_ret; reflexivity]). }
  intros _ s' ->. cbv beta zeta.
  wb. apply fw_skip_non_blank; [exact NZ|]. intros s1 R1 L1 S1 P1. cbv beta.
  sks.
  wb. eapply use_fr; [apply Fr_ws|apply H_ws; fok|]. intros tw s3 [R3 L3] S3 P3. cbv beta.
  wb. apply fw_look. intros s4 R4 L4 _ E4 S4 P4. cbv beta.
  wpeek. wpeekn. dif; [wmark; apply fwp_fail|].
  wb. eapply use_fr; [apply Fr_ws|apply H_ws; fok|]. intros tw5 s5 [R5 L5] S5 P5. cbv beta.
  wb. apply fw_look. intros s6 R6 L6 _ E6 S6 P6. cbv beta.
  wpeek. sks. sks. sks. wmark. fin.
Qed.

Lemma fw_fetch_key F s :
  fuel_ok F s -> fnth s 0 <> 0%N -> 1 <= lk s -> fwp (fetch_key str_ops F) (cpost s) s.
Proof using H_yw Fr_yw.
  intros FO NZ LK. unfold fetch_key. wget. cbv zeta. sks. sks. sks.
  wb. apply fw_skip_non_blank; [nz|]. intros s4 R4 L4 S4 P4. cbv beta.
  wb. eapply use_fr; [apply Fr_yw|apply H_yw; fok|]. intros u s5 [R5 L5] S5 P5. cbv beta.
  wpeek. dif; [wmark; apply fwp_fail|]. wmark. fin.
Qed.

Lemma fw_fetch_value F s :
  fuel_ok F s -> fnth s 0 <> 0%N -> 1 <= lk s -> fwp (fetch_value str_ops F) (cpost s) s.
Proof using H_ws Fr_ws.
  intros FO NZ LK. unfold fetch_value. wget.
  destruct (sc_sks s) as [|sk r0]; [wb; apply fwp_panic|]. wb. apply fwp_ret. cbv beta zeta.
  match goal with |- context [if ?a then modify _ else ret tt] => generalize a; intros ifm end.
  sks.
  wb. apply fw_skip_non_blank; [nz|]. intros s2 R2 L2 S2 P2. cbv beta.
  wb. apply fwp_mono with (Q := fun _ s3 => rl s3 = rl s2 /\ ssb s3 = ssb s2 /\ phi s3 = phi s2).
  { dif; [|apply fwp_ret; repeat split; reflexivity].
    apply fw_look_ch. intros s3 R3 S3 P3. repeat split; assumption. }
  intros c s3 (R3 & S3 & P3). cbv beta.
  wb. apply fwp_mono with (Q := fun _ s' => rl s' <= rl s3 /\ ssb s' = ssb s3 /\ phi s' = phi s3).
  { dif; [|apply fwp_ret; repeat split; lia].
    wb. eapply use_fr; [apply Fr_ws|apply H_ws; fok|]. intros tw s4 [R4 L4] S4 P4. cbv beta.
    dif; [|apply fwp_ret; repeat split; [lia|assumption|assumption]].
    wpeek. dif; [wmark; apply fwp_fail|apply fwp_ret; repeat split; [lia|assumption|assumption]]. }
  intros _ s4 (R4 & S4 & P4). cbv beta.
  destruct (sk_possible sk).
  - wget. sks. sks. sks. sks. sks. sks. sks. fin.
  - sks. wget. sks. sks. sks. fin.
Qed.

Lemma fw_fetch_flow_value F s :
  fuel_ok F s -> fnth s 0 <> 0%N -> 1 <= lk s -> fwp (fetch_flow_value str_ops F) (cpost s) s.
Proof using H_ws Fr_ws.
  intros FO NZ LK. unfold fetch_flow_value. wpeekn. wget. dif; [apply fwp_fail|]. apply fw_fetch_value; assumption.
Qed.

(* stream start / stream end *)
Lemma fw_fetch_stream_start s (Q : unit -> fst_ -> Prop) :
  (forall s', sc_in s' = sc_in s -> sst s' = true -> tpn s' = tpn s -> phi s' = phi s + 1 -> Q tt s') -> fwp fetch_stream_start Q s.
Proof using.
  intros HQ. unfold fetch_stream_start. wget. apply fwp_put. apply HQ; [reflexivity|reflexivity|reflexivity|].
  unfold phi, tpn. sproj. rewrite app_length. cbn [length]. lia.
Qed.

(* after fetch_stream_end: no simple key is possible and the queue ends with StreamEnd *)
Definition clear_keys (l : list simple_key) : Prop := Forall (fun k => sk_possible k = false) l.
Definition Done (s : fst_) : Prop :=
  clear_keys (sc_sks s) /\ exists l sp, sc_tokens s = l ++ [(sp, TStreamEnd)].

Lemma fw_fetch_stream_end s (Q : unit -> fst_ -> Prop) :
  (forall s', sc_in s' = sc_in s -> ssb s' = ssb s -> phi s' <= phi s + 1 -> Done s' -> Q tt s') -> fwp fetch_stream_end Q s.
Proof using.
  intros HQ. unfold fetch_stream_end. apply fwp_bind, fwp_modify.
  match goal with |- fwp _ _ ?x => set (s1 := x) end.
  assert (K1 : skel 0 s s1) by (subst s1; destruct (m_col (sc_mark s) =? 0)%N; [apply skel_refl|unfold skel, ssb, phi, tpn; sproj; repeat split; try reflexivity; lia]).
  clearbody s1. wget.
  destruct (existsb _ _); [apply fwp_fail|].
  apply fwp_bind, fwp_put.
  match goal with |- fwp _ _ ?x => set (s2 := x) end.
  assert (K2 : skel 0 s1 s2) by (subst s2; unfold skel, ssb, phi, tpn; sproj; repeat split; try reflexivity; lia).
  assert (C2 : clear_keys (sc_sks s2)).
  { subst s2; sproj. apply Forall_forall. intros k Hk. apply in_map_iff in Hk. destruct Hk as [k0 [<- _]]. reflexivity. }
  clearbody s2. cbv beta.
  wb. apply fw_unroll_indent. intros s3 U3. pose proof (udet_skel _ _ U3) as K3.
  destruct U3 as (_ & _ & U3 & _). cbv beta.
  wb. unfold remove_simple_key. wget.
  destruct (sc_sks s3) as [|k r] eqn:EK; [apply fwp_panic|].
  destruct (_ && _); [apply fwp_fail|]. apply fwp_put.
  match goal with |- fwp _ _ ?x => set (s4 := x) end.
  assert (K4 : skel 0 s3 s4) by (subst s4; unfold skel, ssb, phi, tpn; sproj; repeat split; try reflexivity; lia).
  assert (C4 : clear_keys (sc_sks s4)).
  { subst s4; sproj. rewrite <- U3 in C2. inversion C2; subst. constructor; [reflexivity|assumption]. }
  clearbody s4. cbv beta.
  wb. unfold disallow_simple_key. apply fwp_modify. wmark. unfold push_tok. apply fwp_modify.
  destruct K1 as (A1 & B1 & P1), K2 as (A2 & B2 & P2), K3 as (A3 & B3 & P3), K4 as (A4 & B4 & P4).
  apply HQ.
  - sproj. congruence.
  - unfold ssb in *. sproj. congruence.
  - match goal with |- phi (set_tokens (sc_tokens ?x ++ [?t]) ?x) <= _ => rewrite (phi_push t x) end.
    match goal with |- phi (set_ska false s4) + 1 <= _ => change (phi s4 + 1 <= phi s + 1) end. lia.
  - split; sproj; [exact C4|]. eexists; eexists; reflexivity.
Qed.

(* fetch_next_token *)
(* one call of fetch_next_token: (a) the stream-start step, (b) a step that consumes, (c) the stream-end step *)
Definition fnt_post (s : fst_) : unit -> fst_ -> Prop := fun _ s' =>
  rl s' <= rl s /\
  ( (sst s = false /\ sst s' = true /\ tpn s' = tpn s /\ phi s' <= phi s + 1)
    \/ (ssb s' = ssb s /\ rl s' < rl s /\ phi s' <= phi s + 5)
    \/ (Done s' /\ ssb s' = ssb s /\ phi s' <= phi s + 1) ).

Lemma fw_fetch_next_token F s : fuel_ok F s -> fwp (fetch_next_token str_ops F) (fnt_post s) s.
Proof using H_stnt H_ws H_yw H_dir H_tag H_anchor H_flow H_plain H_block
            Fr_stnt Fr_ws Fr_yw Fr_dir Fr_tag Fr_anchor Fr_flow Fr_plain Fr_block.
  intros FO. rewrite fetch_next_token_shape.
  wb. apply fw_look. intros s1 R1 L1 _ E1 S1 P1. cbv beta.
  wget. destruct (sc_stream_start s1) eqn:ESS; cbn [negb].
  2:{ apply fw_fetch_stream_start. intros s2 A2 B2 T2 C2. split; [unfold rl, frem in *; rewrite A2; lia|].
      destruct (ssb_eq _ _ S1) as [S1' T1].
      left. repeat split; [unfold sst in *; congruence|exact B2|lia|lia]. }
  wb. eapply use_fr; [apply Fr_stnt|apply H_stnt; fok|]. intros u s2 [R2 L2] S2 P2. cbv beta.
  sks. wmark. sks.
  wb. apply fw_look. intros s5 R5 L5 K5 E5 S5 P5. cbv beta.
  wb. apply fwp_next_is. cbv beta.
  destruct (is_z (fnth s5 0)) eqn:Z.
  { apply fw_fetch_stream_end. intros s6 A6 B6 C6 D6. split; [unfold rl, frem in *; rewrite A6; lia|].
    right; right. split; [exact D6|split; [congruence|lia]]. }
  assert (NZ : fnth s5 0 <> 0%N) by (unfold is_z in Z; apply N.eqb_neq in Z; exact Z).
  assert (FO5 : fuel_ok F s5) by fok.
  assert (LK5 : 1 <= lk s5) by lia.
  wget. wpeek.
  wb. apply fwp_mono with (Q := fun (_ : bool) s' => s' = s5).
  { repeat dif; try (apply fwp_ret; reflexivity). apply fwp_next_is_document_start. reflexivity. }
  intros dstart s' ->. cbv beta.
  wb. apply fwp_mono with (Q := fun (_ : bool) s' => s' = s5).
  { repeat dif; try (apply fwp_ret; reflexivity). apply fwp_next_is_document_end. reflexivity. }
  intros dend s' ->. cbv beta.
  apply fwp_mono with (Q := cpost s5).
  2:{ intros u6 s6 (A & B & C). split; [lia|]. right; left. repeat split; [congruence|lia|lia]. }
  dif; [apply fw_fetch_directive; assumption|].
  destruct dstart.
  { apply fw_fetch_document_indicator; [exact NZ|]. intros s6 A B C D. unfold cpost. repeat split; [lia|exact C|lia]. }
  destruct dend.
  { wb. apply fw_fetch_document_indicator; [exact NZ|]. intros s6 R6 L6 S6 P6. cbv beta.
    wb. eapply use_fr; [apply Fr_ws|apply H_ws; fok|]. intros tw s7 [R7 L7] S7 P7. cbv beta.
    wb. apply fwp_next_is. cbv beta.
    dif; [apply fwp_ret; unfold cpost; repeat split; [lia|congruence|lia]|wmark; apply fwp_fail]. }
  dif; [apply fwp_fail|].
  wpeek. wpeekn.
  apply dispatch_cases. intros [] _; cbn [run_dact].
  - apply fw_fetch_flow_collection_start; assumption.
  - apply fw_fetch_flow_collection_end; assumption.
  - apply fw_fetch_flow_entry; assumption.
  - apply fw_fetch_block_entry; assumption.
  - apply fw_fetch_key; assumption.
  - apply fw_fetch_value; assumption.
  - apply fw_fetch_flow_value; assumption.
  - apply fw_fetch_anchor; assumption.
  - apply fw_fetch_tag; assumption.
  - apply fw_fetch_block_scalar; assumption.
  - apply fw_fetch_flow_scalar; assumption.
  - apply fw_fetch_plain_scalar; assumption.
  - apply fwp_fail.
Qed.

(* fetch_more_tokens *)
Lemma clear_keys_map f l :
  (forall k, sk_possible k = false -> sk_possible (f k) = false) -> clear_keys l -> clear_keys (map f l).
Proof using. intros Hf H. induction H as [|k l Hk Hl IH]; cbn [map]; constructor; auto. Qed.
Lemma clear_existsb (p : simple_key -> bool) l : clear_keys l -> existsb (fun k => sk_possible k && p k) l = false.
Proof using. intros H. induction H as [|k l Hk Hl IH]; cbn [existsb]; [reflexivity|]. rewrite Hk, IH. reflexivity. Qed.

(* the budget invariant: B bounds the potential plus 5 per remaining character, 1 for the stream-start token and 1
   for the stream-end token that are still to come *)
Definition pot (B : nat) (s : fst_) : Prop :=
  (Done s /\ phi s <= B) \/ phi s + 5 * rl s + (if sst s then 0 else 1) + 1 <= B.
Definition GI (F B : nat) (s : fst_) : Prop := fuel_ok F s /\ pot B s.

Lemma gi_step F B s s' : GI F B s -> ~ Done s -> fnt_post s tt s' -> GI F B s'.
Proof using.
  intros [FO PT] ND (R & C). split; [fok|]. destruct PT as [[D _]|PT]; [contradiction|].
  destruct C as [(A1 & A2 & A3 & A4)|[(A1 & A2 & A3)|(A1 & A2 & A3)]].
  - right. rewrite A1 in PT. rewrite A2. lia.
  - right. destruct (ssb_eq _ _ A1) as [E _]. rewrite E. lia.
  - left. split; [exact A1|lia].
Qed.

Lemma fw_fetch_more_tokens F B : forall fuel s,
  GI F B s -> (Done s \/ 2 * rl s + (if sst s then 0 else 1) + 2 <= fuel) -> 1 <= fuel ->
  fwp (fetch_more_tokens str_ops F fuel) (fun _ s' => GI F B s' /\ tpn s' = tpn s) s.
Proof using H_stnt H_ws H_yw H_dir H_tag H_anchor H_flow H_plain H_block
            Fr_stnt Fr_ws Fr_yw Fr_dir Fr_tag Fr_anchor Fr_flow Fr_plain Fr_block.
  induction fuel as [|fuel IH]; intros s G HM H1; [lia|]. cbn [fetch_more_tokens].
  wget.
  wb. apply fwp_mono with (Q := fun (need : bool) s1 => skel 0 s s1 /\ (Done s -> Done s1) /\ (Done s1 -> need = false)).
  { destruct (sc_tokens s) as [|t r] eqn:ET.
    - apply fwp_ret. split; [apply skel_refl|]. split; [auto|].
      intros [_ (l & sp & E)]. rewrite ET in E. destruct l; discriminate E.
    - wb. unfold stale_simple_keys. wget. cbv zeta. destruct (existsb _ _); [apply fwp_fail|]. apply fwp_put. cbv beta.
      wget. apply fwp_ret. split; [unfold skel, ssb, phi, tpn; sproj; repeat split; try reflexivity; lia|]. split.
      + intros [C D]. split; sproj; [|exact D].
        apply clear_keys_map; [|exact C]. intros k Hk. destruct (_ && _); [reflexivity|exact Hk].
      + intros [C _]. apply clear_existsb. exact C. }
  intros need s1 (K1 & HD & HN). cbv beta.
  pose proof (skel_rl _ _ _ K1) as R1. destruct K1 as (_ & S1 & P1). destruct (ssb_eq _ _ S1) as [S1' T1].
  assert (G1 : GI F B s1).
  { destruct G as [FO PT]. split; [fok|]. destruct PT as [[D PB]|PT].
    - left. split; [apply HD, D|lia].
    - right. rewrite S1'. lia. }
  destruct need.
  - assert (ND1 : ~ Done s1) by (intros D; specialize (HN D); discriminate HN).
    destruct HM as [D|HM]; [exfalso; apply ND1, HD, D|].
    wb. eapply fwp_mono; [apply fw_fetch_next_token; apply G1|]. intros u s2 C2. cbv beta.
    pose proof (gi_step _ _ _ _ G1 ND1 C2) as G2.
    destruct C2 as (R2 & C2).
    eapply fwp_mono.
    + apply IH; [exact G2| |].
      * destruct C2 as [(A1 & A2 & A3 & A4)|[(A1 & A2 & A3)|(A1 & A2 & A3)]].
        -- right. rewrite A2. rewrite <- S1', A1 in HM. lia.
        -- right. destruct (ssb_eq _ _ A1) as [E _]. rewrite E, S1'. lia.
        -- left. exact A1.
      * destruct (sst s); lia.
    + intros u3 s3 [G3 T3]. split; [exact G3|].
      destruct C2 as [(A1 & A2 & A3 & A4)|[(A1 & A2 & A3)|(A0 & A1 & A3)]]; [lia| |];
        destruct (ssb_eq _ _ A1) as [_ E]; lia.
  - apply fwp_modify. split; [|exact T1].
    destruct G1 as [FO1 PT1]. split; [exact FO1|]. exact PT1.
Qed.

(* next_token *)
Lemma N2Nat_succ (n : N) : N.to_nat (n + 1) = N.to_nat n + 1.
Proof using. rewrite N2Nat.inj_add. reflexivity. Qed.

Lemma fw_next_token F B s : GI F B s ->
  fwp (next_token str_ops F)
      (fun o s' => (sc_stream_end s' = true \/ GI F B s') /\ (o <> None -> tpn s' = tpn s + 1 /\ tpn s' <= B)) s.
Proof using H_stnt H_ws H_yw H_dir H_tag H_anchor H_flow H_plain H_block
            Fr_stnt Fr_ws Fr_yw Fr_dir Fr_tag Fr_anchor Fr_flow Fr_plain Fr_block.
  intros G. unfold next_token. wget.
  destruct (sc_stream_end s) eqn:SE; [apply fwp_ret; split; [left; exact SE|intros X; congruence]|].
  wb. apply fwp_mono with (Q := fun _ s1 => GI F B s1 /\ tpn s1 = tpn s).
  { destruct (sc_token_available s); [apply fwp_ret; split; [exact G|reflexivity]|].
    apply fw_fetch_more_tokens; [exact G| |]; destruct G as [FO _]; unfold fuel_ok in FO; [right; destruct (sst s); lia|lia]. }
  intros _ s1 [[FO1 PT1] T1]. cbv beta. wget.
  destruct (sc_tokens s1) as [|t r] eqn:ETK; [apply fwp_fail|].
  apply fwp_bind, fwp_put.
  match goal with |- fwp _ _ ?x => set (s2 := x) end.
  assert (R2 : rl s2 = rl s1) by reflexivity.
  assert (S2 : sst s2 = sst s1) by reflexivity.
  assert (T2 : tpn s2 = tpn s1 + 1) by (subst s2; unfold tpn; sproj; apply N2Nat_succ).
  assert (P2 : phi s2 = phi s1) by (subst s2; unfold phi, tpn; sproj; rewrite ETK, N2Nat_succ; cbn [length]; lia).
  assert (K2 : sc_sks s2 = sc_sks s1) by reflexivity.
  assert (TK2 : sc_tokens s2 = r) by reflexivity.
  assert (B2 : tpn s2 <= B).
  { assert (phi s1 <= B) by (destruct PT1 as [[_ X]|X]; lia). unfold phi in *. rewrite ETK in *. cbn [length] in *. lia. }
  clearbody s2. cbv beta.
  destruct t as [sp tk]. cbn [snd].
  assert (HSE : forall (Q : unit -> fst_ -> Prop), (forall s', sc_stream_end s' = true -> tpn s' = tpn s2 -> Q tt s') ->
                  fwp (modify (set_se true)) Q s2).
  { intros Q HQ. apply fwp_modify. apply HQ; reflexivity. }
  assert (HOT : tk <> TStreamEnd -> GI F B s2).
  { intros NE. split; [fok|]. destruct PT1 as [[[C (l & sp' & E)] PB]|PT].
    - left. split; [|lia]. split; [rewrite K2; exact C|]. rewrite TK2. rewrite ETK in E.
      destruct l as [|t0 l]; cbn [app] in E; injection E as E1 E2; [congruence|]. exists l, sp'. exact E2.
    - right. rewrite S2. lia. }
  wb.
  destruct tk; try (apply fwp_ret; apply fwp_ret; split; [right; apply HOT; discriminate|intros _; split; lia]).
  apply HSE. intros s3 E3 T3. apply fwp_ret. split; [left; exact E3|intros _; split; lia].
Qed.

End FuelFetch.
