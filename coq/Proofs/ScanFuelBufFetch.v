(* The token-level postcondition of ScanPairFetch.v, read over the definitions of ScanFuelBuf.v. *)
From Coq Require Import List NArith ZArith Bool Arith Lia.
Import ListNotations.
Require Import SBase ScanFuelBuf.
Require ScanPairFetch.
Local Open Scope nat_scope.

(* the postcondition of every token-level function: equal values, related states *)
Definition srpost {A} : A -> st1 -> A -> st2 -> Prop := Qe (fun _ t1 t2 => SR t1 t2).

Section RelFetchGen.
Variable N0 : nat.
Local Notation rwp := (rwpN N0).
Lemma rwp_rpost_srpost {A} k (m1 : M1 A) (m2 : M2 A) s1 s2 : rwp m1 m2 (rpost k) s1 s2 -> rwp m1 m2 srpost s1 s2.
Proof. exact (ScanPairFetch.rwp_rpost_srpost true N0 k m1 m2 s1 s2). Qed.
End RelFetchGen.
