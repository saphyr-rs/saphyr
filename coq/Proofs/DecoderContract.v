(* C18 — the decoder models meet the contract H0-H3 of the termination theorem (Proofs/DecodeProofs.v:
   decoder_contract), in EVERY state and on every input, with K = DECODER_K = 4:

     u8_loop_post / u16_loop_post     the post-condition of one call of the UTF-8 / UTF-16 state machines
     decoder_contract_holds           decoder_contract (erase_step decoder_step) decoder_pending DECODER_K

   so C18_decode_loop_terminates applies to the loop over these decoders (not only to the toy decoder). *)
From Coq Require Import List NArith Bool Lia Arith.
Import ListNotations.
Require Import Consts Decode TagSpec EncodingSpec Decoders DecodeProofs TagUtf8 DecoderLoop DecoderUtf8 DecoderUtf16 DecoderMain.
Open Scope N_scope.
Arguments N.add : simpl never.
Arguments N.sub : simpl never.
Arguments N.mul : simpl never.
Arguments N.div : simpl never.
Arguments N.modulo : simpl never.
Arguments N.eqb : simpl never.
Arguments N.ltb : simpl never.
Arguments N.leb : simpl never.
Arguments N.max : simpl never.
Arguments N.to_nat : simpl never.
Arguments N.of_nat : simpl never.

(* what one call may do, relative to the bytes [rd] already counted as read in the call:
   [pb] / [pa] = pending bytes before / after, [lrem] = length of the input still unread *)
Definition xpost (pb pa lrem spare rd : N) (r : xresult) (cs : list N) : Prop :=
  text_len cs <= spare /\
  match r with
  | XInputEmpty => True
  | XOutputFull rd' =>
      rd <= rd' /\ rd' <= rd + lrem /\ pa + rd <= pb + rd' /\ (4 <= spare -> pa + rd < pb + rd')
  | XMalformed ml af rd' =>
      rd <= rd' /\ rd' <= rd + lrem /\ pa + rd < pb + rd' /\ ml + af + rd <= pb + rd' /\ ml + af <= 255
  end.

(* A call that goes on like a call started further along: [rd2 - rd] more bytes read, [lrem2] bytes of input left,
   [pb2] bytes pending, [sp2] bytes spare, the output [out] so far against the [cs] still to come.  Below 4 spare
   bytes "output full" needs no progress, so the step must either keep 4 or have made progress itself. *)
Lemma xpost_step : forall pb pb2 pa lrem lrem2 spare sp2 rd rd2 r cs out,
    xpost pb2 pa lrem2 sp2 rd2 r cs ->
    rd <= rd2 -> rd2 + lrem2 <= rd + lrem -> pb2 + rd <= pb + rd2 ->
    text_len out + sp2 <= text_len cs + spare -> (4 <= spare -> 4 <= sp2 \/ pb2 + rd < pb + rd2) ->
    xpost pb pa lrem spare rd r out.
Proof.
  intros pb pb2 pa lrem lrem2 spare sp2 rd rd2 r cs out H Hrd Hrem Hp Ht Hs.
  unfold xpost in *. destruct r; repeat split; lia.
Qed.

(* UTF-8 *)
Lemma u8_pending_eq : forall st, u8_pending st = u_seen st + N.min (u_needed st) 1.
Proof. intros st. unfold u8_pending. destruct (N.eqb_spec (u_needed st) 0); lia. Qed.

Lemma u8_fast_facts : forall st rem spare,
    exists cs0 k rem1,
      (if u_needed st =? 0 then fast8 (length rem) rem spare else ([], 0, rem)) = (cs0, k, rem1) /\
      text_len cs0 = k /\ k <= spare /\ k <= nlen rem /\ nlen rem1 = nlen rem - k /\
      (length rem1 <= length rem)%nat /\ (u_needed st <> 0 -> k = 0).
Proof.
  intros st rem spare. destruct (N.eqb_spec (u_needed st) 0) as [En|En].
  - destruct (fast8 (length rem) rem spare) as [[cs0 k] rem1] eqn:Hf.
    destruct (fast8_spec _ _ _ _ _ _ Hf) as (Hg & Hr & Ht & Hs & _).
    pose proof (good_prefix_le utf8_next utf8_next_size _ _ _ Hg) as Hk.
    exists cs0, k, rem1. split; [reflexivity|]. split; [exact Ht|]. split; [exact Hs|]. split; [exact Hk|].
    split; [rewrite Hr; apply nlen_skipn|]. split; [rewrite Hr, skipn_length; lia|contradiction].
  - exists [], 0, rem. split; [reflexivity|]. split; [reflexivity|]. split; [lia|]. split; [lia|].
    split; [lia|]. split; [lia|reflexivity].
Qed.

Lemma u8_loop_post : forall fuel st rem spare rd st' r cs,
    (length rem < fuel)%nat -> u8_loop fuel true st rem spare rd = (st', r, cs) ->
    xpost (u8_pending st) (u8_pending st') (nlen rem) spare rd r cs.
Proof.
  induction fuel as [|f IH]; intros st rem spare rd st' r cs Hfuel H; [lia|].
  cbn [u8_loop] in H.
  destruct (u8_fast_facts st rem spare) as (cs0 & k & rem1 & Ef & Ht & Hk & Hkn & Hl1 & Hl1' & Hk0).
  rewrite Ef in H. clear Ef.
  pose proof (N.mod_le (u_seen st + 1) 256 ltac:(lia)) as Hm. pose proof (N.mod_lt (u_seen st + 1) 256 ltac:(lia)) as Hm'.
  destruct rem1 as [|b tl].
  - (* end of input *)
    cbn [andb] in H. destruct (N.eqb_spec (u_needed st) 0) as [En|En]; cbn [negb] in H;
      inversion H; subst st' r cs; clear H; unfold xpost; rewrite app_nil_r, ?u8_pending_eq; cbn [u_seen u_needed].
    + split; [lia|exact I].
    + specialize (Hk0 En). repeat split; lia.
  - rewrite nlen_cons in Hl1. cbn [length] in Hl1'.
    destruct (N.ltb_spec (spare - k) 4) as [Hfull|Hroom].
    { (* output full *)
      inversion H; subst st' r cs; clear H. unfold xpost. rewrite app_nil_r. repeat split; lia. }
    (* a further call on [tl] from the state [st2], after [b] was read *)
    assert (Hrec : forall st2 sp2 s r0 c out,
               u8_loop f true st2 tl sp2 (rd + k + 1) = (s, r0, c) ->
               u8_pending st2 <= u8_pending st + k + 1 -> text_len out + sp2 <= text_len c + spare ->
               (4 <= spare -> 4 <= sp2 \/ u8_pending st2 < u8_pending st + k + 1) ->
               xpost (u8_pending st) (u8_pending s) (nlen rem) spare rd r0 out).
    { intros st2 sp2 s r0 c out E Hp Hout Hsp.
      apply (xpost_step _ _ _ _ _ _ _ _ _ _ _ _ (IH st2 tl sp2 _ s r0 c ltac:(lia) E)); lia. }
    destruct (N.eqb_spec (u_needed st) 0) as [En|En].
    + (* neutral state: a first byte *)
      destruct (N.ltb_spec b 128) as [Hb|Hb].
      { destruct (u8_loop f true st tl (spare - k - 1) (rd + k + 1)) as [[s r0] c] eqn:E.
        inversion H; subst st' r cs; clear H.
        apply (Hrec _ _ _ _ _ _ E); rewrite ?u8_pending_eq, ?text_len_app; cbn [text_len]; rewrite ?(utf8_len_ascii b Hb); lia. }
      assert (Hbad : xpost (u8_pending st) (u8_pending st) (nlen rem) spare rd (XMalformed 1 0 (rd + k + 1)) (cs0 ++ [])).
      { unfold xpost. rewrite app_nil_r. repeat split; lia. }
      destruct (N.ltb_spec b 194); [inversion H; subst st' r cs; exact Hbad|].
      assert (Hlead : forall cp n lo hi s r0 c,
                u8_loop f true (U8 cp (u_seen st) n lo hi) tl (spare - k) (rd + k + 1) = (s, r0, c) ->
                xpost (u8_pending st) (u8_pending s) (nlen rem) spare rd r0 (cs0 ++ c)).
      { intros cp n lo hi s r0 c E.
        apply (Hrec _ _ _ _ _ _ E); rewrite ?u8_pending_eq, ?text_len_app; cbn [u_seen u_needed]; lia. }
      destruct (N.ltb_spec b 224).
      { destruct (u8_loop f true _ tl (spare - k) (rd + k + 1)) as [[s r0] c] eqn:E.
        inversion H; subst st' r cs. exact (Hlead _ _ _ _ _ _ _ E). }
      destruct (N.ltb_spec b 240).
      { destruct (u8_loop f true _ tl (spare - k) (rd + k + 1)) as [[s r0] c] eqn:E.
        inversion H; subst st' r cs. exact (Hlead _ _ _ _ _ _ _ E). }
      destruct (N.ltb_spec b 245); [|inversion H; subst st' r cs; exact Hbad].
      destruct (u8_loop f true _ tl (spare - k) (rd + k + 1)) as [[s r0] c] eqn:E.
      inversion H; subst st' r cs. exact (Hlead _ _ _ _ _ _ _ E).
    + (* inside a sequence: the fast path did not run *)
      specialize (Hk0 En). subst k.
      destruct (negb ((u_lo st <=? b) && (b <=? u_hi st))).
      { inversion H; subst st' r cs; clear H.
        unfold xpost. rewrite app_nil_r, !u8_pending_eq. cbn [u_seen u_needed]. repeat split; lia. }
      destruct (negb (u_seen st + 1 =? u_needed st)).
      { destruct (u8_loop f true _ tl _ _) as [[s r0] c] eqn:E. inversion H; subst st' r cs; clear H.
        apply (Hrec _ _ _ _ _ _ E); rewrite ?u8_pending_eq, ?text_len_app; cbn [u_seen u_needed]; lia. }
      destruct (u8_loop f true _ tl _ _) as [[s r0] c] eqn:E. inversion H; subst st' r cs; clear H.
      pose proof (utf8_len_range (u_cp st * 64 + b mod 64)).
      apply (Hrec _ _ _ _ _ _ E); rewrite ?u8_pending_eq, ?text_len_app; cbn [u_seen u_needed text_len]; lia.
Qed.

(* UTF-16 *)
Lemma u16_fast_facts : forall be st rem spare,
    exists cs0 k err rem1,
      (if u16_neutral st && (4 <=? spare) then fast16 be false rem spare else ([], 0, false, rem)) = (cs0, k, err, rem1) /\
      text_len cs0 <= spare /\ k <= nlen rem /\ nlen rem1 = nlen rem - k /\ (length rem1 <= length rem)%nat /\
      (u16_neutral st = false -> k = 0 /\ cs0 = []) /\ (1 <= text_len cs0 -> 1 <= k) /\ (err = true -> 2 <= k).
Proof.
  intros be st rem spare. destruct (u16_neutral st && (4 <=? spare)) eqn:En.
  - destruct (fast16 be false rem spare) as [[[cs0 k] err] rem1] eqn:Hf.
    destruct (fast16_spec be (length rem) rem (Nat.le_refl _) false spare cs0 k err rem1 Hf) as (k0 & Hg & Ht & Hr & He).
    pose proof (good_prefix_le (utf16_next be) (utf16_next_size be) _ _ _ Hg) as Hk0.
    exists cs0, k, err, rem1. split; [reflexivity|]. split; [exact Ht|].
    assert (Hk : k <= nlen rem /\ k0 <= k /\ (err = true -> 2 <= k)).
    { destruct err; [destruct He as (-> & H2 & _); repeat split; lia|destruct He as (-> & _); repeat split; [lia|lia|discriminate]]. }
    destruct Hk as (Hk1 & Hk2 & Hk3).
    split; [exact Hk1|]. split; [rewrite Hr; apply nlen_skipn|]. split; [rewrite Hr, skipn_length; lia|].
    split; [intros Hn; rewrite Hn in En; discriminate|]. split; [|exact Hk3].
    intros Hpos. destruct cs0 as [|c cs1]; [cbn [text_len] in Hpos; lia|].
    pose proof (good_prefix_pos _ (utf16_next_size be) _ _ _ _ Hg). lia.
  - exists [], 0, false, rem. split; [reflexivity|]. cbn [text_len]. split; [lia|]. split; [lia|]. split; [lia|].
    split; [lia|]. split; [intros _; split; reflexivity|]. split; [lia|discriminate].
Qed.

Lemma u16_pending_lead : forall ls b pb, u16_pending (U16 ls (Some b) pb) = u16_pending (U16 ls None pb) + 1.
Proof. intros. unfold u16_pending. cbn [w_surrogate w_lead_byte w_pending_bmp]. lia. Qed.

Lemma u16_pending_none : forall ls, u16_pending (U16 ls None false) = 2 * N.min ls 1.
Proof.
  intros. unfold u16_pending. cbn [w_surrogate w_lead_byte w_pending_bmp negb]. rewrite andb_true_r.
  destruct (N.eqb_spec ls 0); lia.
Qed.

Lemma u16_pending_bmp : forall u lb, u16_pending (U16 u lb true) = 2 + u16_pending (U16 0 lb false).
Proof. intros. unfold u16_pending. cbn [w_surrogate w_lead_byte w_pending_bmp negb]. rewrite andb_false_r. reflexivity. Qed.

Lemma u16_loop_post : forall be fuel st rem spare rd st' r cs,
    w_pending_bmp st = false ->
    (length rem < fuel)%nat -> u16_loop fuel be true st rem spare rd = (st', r, cs) ->
    xpost (u16_pending st) (u16_pending st') (nlen rem) spare rd r cs.
Proof.
  intros be. induction fuel as [|f IH]; intros st rem spare rd st' r cs Hpbf Hfuel H; [lia|].
  cbn [u16_loop] in H.
  destruct (u16_fast_facts be st rem spare) as (cs0 & k & err & rem1 & Ef & Ht & Hkn & Hl1 & Hl1' & Hk0 & Hpos & Herr).
  rewrite Ef in H. clear Ef.
  destruct err.
  { (* the fast path met an unpaired surrogate: the state is neutral *)
    inversion H; subst st' r cs; clear H. specialize (Herr eq_refl).
    unfold xpost. repeat split; lia. }
  destruct st as [ls lb pb]. cbn [w_surrogate w_lead_byte w_pending_bmp] in H, Hpbf. subst pb.
  destruct rem1 as [|b tl].
  - (* end of input *)
    cbn [andb] in H. destruct (u16_neutral (U16 ls lb false)) eqn:En; cbn [negb] in H.
    + inversion H; subst st' r cs; clear H. unfold xpost. rewrite app_nil_r. split; [lia|exact I].
    + destruct (Hk0 eq_refl) as [-> ->]. cbn [text_len app] in *.
      destruct (N.ltb_spec (spare - 0) 3).
      { inversion H; subst st' r cs; clear H. unfold xpost. cbn [text_len]. repeat split; lia. }
      destruct (N.eqb_spec ls 0) as [Hls|Hls]; cbn [negb] in H.
      * destruct lb as [b|].
        -- inversion H; subst st' r cs; clear H. rewrite u16_pending_lead, !u16_pending_none.
           unfold xpost. cbn [text_len]. repeat split; lia.
        -- unfold u16_neutral in En. cbn [w_surrogate w_lead_byte] in En. subst ls. discriminate.
      * destruct lb as [b|]; inversion H; subst st' r cs; clear H;
          rewrite ?u16_pending_lead, !u16_pending_none; unfold xpost; cbn [text_len]; repeat split; lia.
  - rewrite nlen_cons in Hl1. cbn [length] in Hl1'.
    destruct (N.ltb_spec (spare - text_len cs0) 4) as [Hfull|Hroom].
    { (* output full *)
      inversion H; subst st' r cs; clear H. unfold xpost. rewrite app_nil_r.
      destruct (u16_neutral (U16 ls lb false)) eqn:En.
      - repeat split; lia.
      - destruct (Hk0 eq_refl) as [-> ->]. cbn [text_len] in *. repeat split; lia. }
    (* a further call on [tl] from the state [st2], after [b] was read *)
    assert (Hrec : forall st2 sp2 s r0 c out,
               u16_loop f be true st2 tl sp2 (rd + k + 1) = (s, r0, c) -> w_pending_bmp st2 = false ->
               u16_pending st2 <= u16_pending (U16 ls lb false) + k + 1 -> text_len out + sp2 <= text_len c + spare ->
               (4 <= spare -> 4 <= sp2 \/ u16_pending st2 < u16_pending (U16 ls lb false) + k + 1) ->
               xpost (u16_pending (U16 ls lb false)) (u16_pending s) (nlen rem) spare rd r0 out).
    { intros st2 sp2 s r0 c out E Hb2 Hp Hout Hsp.
      apply (xpost_step _ _ _ _ _ _ _ _ _ _ _ _ (IH st2 tl sp2 _ s r0 c Hb2 ltac:(lia) E)); lia. }
    destruct lb as [lead|].
    + (* second byte of a code unit; the state is not neutral, the fast path did not run *)
      destruct (Hk0 (neutral_lead ls lead false)) as [-> ->]. cbn [text_len app] in *.
      rewrite u16_pending_lead, u16_pending_none in *.
      set (u := code_unit be lead b) in *.
      destruct (high_surrogate u) eqn:Hh.
      { pose proof (high_range _ Hh) as Hur.
        destruct (N.eqb_spec ls 0) as [Hls|Hls]; cbn [negb] in H.
        - destruct (u16_loop f be true _ tl _ _) as [[s r0] c] eqn:E. inversion H; subst st' r cs; clear H.
          apply (Hrec _ _ _ _ _ _ E eq_refl); rewrite ?u16_pending_none; lia.
        - inversion H; subst st' r cs; clear H. rewrite u16_pending_none.
          unfold xpost. cbn [text_len]. repeat split; lia. }
      destruct (low_surrogate u) eqn:Hl.
      { destruct (N.eqb_spec ls 0) as [Hls|Hls].
        - inversion H; subst st' r cs; clear H. rewrite u16_pending_none.
          unfold xpost. cbn [text_len]. repeat split; lia.
        - destruct (u16_loop f be true _ tl _ _) as [[s r0] c] eqn:E. inversion H; subst st' r cs; clear H.
          pose proof (utf8_len_range (surrogate_pair ls u)).
          apply (Hrec _ _ _ _ _ _ E eq_refl); rewrite ?u16_pending_none; cbn [text_len]; lia. }
      destruct (N.eqb_spec ls 0) as [Hls|Hls]; cbn [negb] in H.
      * destruct (u16_loop f be true _ tl _ _) as [[s r0] c] eqn:E. inversion H; subst st' r cs; clear H.
        pose proof (utf8_len_range u).
        apply (Hrec _ _ _ _ _ _ E eq_refl); rewrite ?u16_pending_none; cbn [text_len]; lia.
      * inversion H; subst st' r cs; clear H. rewrite u16_pending_bmp, u16_pending_none.
        unfold xpost. cbn [text_len]. repeat split; lia.
    + (* first byte of a code unit *)
      destruct (u16_loop f be true _ tl _ _) as [[s r0] c] eqn:E. inversion H; subst st' r cs; clear H.
      apply (Hrec _ _ _ _ _ _ E eq_refl); rewrite ?u16_pending_lead, ?text_len_app; lia.
Qed.

Lemma u16_raw_post : forall be st rem spare st' r cs,
    u16_raw be true st rem spare = (st', r, cs) ->
    xpost (u16_pending st) (u16_pending st') (nlen rem) spare 0 r cs.
Proof.
  intros be st rem spare st' r cs H. unfold u16_raw in H.
  destruct (w_pending_bmp st) eqn:Epb.
  - destruct (N.ltb_spec spare 3).
    + inversion H; subst st' r cs. unfold xpost. cbn [text_len]. repeat split; lia.
    + destruct (u16_loop _ be true _ rem _ 0) as [[s r0] c] eqn:E.
      apply u16_loop_post in E; [|reflexivity|lia]. inversion H; subst st' r cs; clear H.
      (* the pending unit is a u16: it takes at most three bytes *)
      assert (Hc : utf8_len (w_surrogate st mod 65536) <= 3).
      { pose proof (N.mod_lt (w_surrogate st) 65536 ltac:(lia)). unfold utf8_len.
        destruct (_ <? 128); [lia|]. destruct (_ <? 2048); [lia|].
        rewrite (proj2 (N.ltb_lt _ 65536)) by assumption. lia. }
      destruct st as [ls lb pb]. cbn [w_surrogate w_lead_byte w_pending_bmp] in *. subst pb.
      apply (xpost_step _ _ _ _ _ _ _ _ _ _ _ _ E); rewrite ?u16_pending_bmp; cbn [text_len]; lia.
  - apply u16_loop_post in H; [exact H|exact Epb|lia].
Qed.

(* The decoder *)
Lemma variant_step_post : forall v rem spare v' r cs,
    variant_step v rem spare = (v', r, cs) ->
    xpost (variant_pending v) (variant_pending v') (nlen rem) spare 0 r cs.
Proof.
  intros [s|be s] rem spare v' r cs H; cbn [variant_step variant_pending] in *.
  - destruct (u8_raw true s rem spare) as [[s' r0] c] eqn:E. inversion H; subst v' r cs. cbn [variant_pending].
    unfold u8_raw in E. apply u8_loop_post in E; [exact E|lia].
  - destruct (u16_raw be true s rem spare) as [[s' r0] c] eqn:E. inversion H; subst v' r cs. cbn [variant_pending].
    apply u16_raw_post in E. exact E.
Qed.

Lemma decoder_step_post : forall d rem spare d' r cs,
    decoder_step d rem spare = (d', r, cs) ->
    xpost (decoder_pending d) (decoder_pending d') (nlen rem) spare 0 r cs.
Proof.
  intros [start v] rem spare d' r cs H. unfold decoder_step in H. cbn [dc_at_start dc_variant] in H.
  unfold decoder_pending. cbn [dc_variant].
  assert (Hplain : forall v0, variant_pending v0 <= variant_pending v ->
             (let '(v', r, cs) := variant_step v0 rem spare in (Decoder false v', r, cs)) = (d', r, cs) ->
             xpost (variant_pending v) (variant_pending (dc_variant d')) (nlen rem) spare 0 r cs).
  { intros v0 Hle E. destruct (variant_step v0 rem spare) as [[v' r0] c] eqn:Ev.
    inversion E; subst d' r cs. cbn [dc_variant].
    apply (xpost_step _ _ _ _ _ _ _ _ _ _ _ _ (variant_step_post _ _ _ _ _ _ Ev)); lia. }
  destruct start; [|apply (Hplain v); [lia|exact H]].
  destruct rem as [|b0 tl].
  { inversion H; subst d' r cs. unfold xpost. cbn [text_len]. split; [lia|exact I]. }
  destruct (for_bom (b0 :: tl)) as [[e k]|] eqn:Eb; [|apply (Hplain v); [lia|exact H]].
  pose proof (for_bom_le _ _ _ Eb) as Hk.
  set (v0 := if encoding_eqb (variant_encoding v) e then v else new_variant e) in *.
  assert (Hv0 : variant_pending v0 <= variant_pending v).
  { unfold v0. destruct (encoding_eqb (variant_encoding v) e); [lia|].
    assert (E0 : variant_pending (new_variant e) = 0) by (destruct e; reflexivity). lia. }
  destruct (variant_step v0 (skipn (N.to_nat k) (b0 :: tl)) spare) as [[v' r0] c] eqn:Ev.
  inversion H; subst d' r cs. cbn [dc_variant]. apply variant_step_post in Ev. rewrite nlen_skipn in Ev.
  unfold xpost in *. destruct r0; cbn [add_read]; repeat split; lia.
Qed.

Lemma decoder_contract_holds : decoder_contract (erase_step decoder_step) decoder_pending DECODER_K.
Proof.
  assert (Hpost : forall d rem spare d' r, erase_step decoder_step d rem spare = (d', r) ->
             exists r0 cs, r = erase_result r0 (text_len cs) /\
                           xpost (decoder_pending d) (decoder_pending d') (nlen rem) spare 0 r0 cs).
  { intros d rem spare d' r E. unfold erase_step in E.
    destruct (decoder_step d rem spare) as [[d2 r0] cs] eqn:Ed. inversion E; subst d2 r.
    exists r0, cs. split; [reflexivity|apply decoder_step_post; exact Ed]. }
  unfold DECODER_K. split; intros d rem spare d'.
  - intros r E. destruct (Hpost _ _ _ _ _ E) as (r0 & cs & -> & X). unfold xpost in X.
    destruct r0; cbn [erase_result step_read step_written]; lia.
  - intros rd w E. destruct (Hpost _ _ _ _ _ E) as (r0 & cs & E2 & X). unfold xpost in X.
    destruct r0; inversion E2; subst; lia.
  - intros ml af rd w E. destruct (Hpost _ _ _ _ _ E) as (r0 & cs & E2 & X). unfold xpost in X.
    destruct r0; inversion E2; subst; lia.
  - intros ml af rd w E. destruct (Hpost _ _ _ _ _ E) as (r0 & cs & E2 & X). unfold xpost in X.
    destruct r0; inversion E2; subst; lia.
Qed.

(* hence the termination theorem applies to the loop over the decoder models *)
Lemma decoder_models_terminate : forall e t input fuel, (decode_fuel input <= fuel)%nat ->
    outcome_ok (nlen input) (decode_loop_impl (erase_step decoder_step) fuel (new_decoder e) t input) = true.
Proof.
  intros e t input fuel Hf.
  apply (decode_loop_impl_terminates decoder (erase_step decoder_step) decoder_pending (new_decoder e)
           decoder_contract_holds); [destruct e; reflexivity|exact Hf].
Qed.

(* The loop with content and the loop with lengths *)
(* For the three built-in traps the loop that carries the text is, length by length, the loop of
   Model/Decode.v over the erased decoder. *)
Definition erase_trap (t : xtrap) : option trap :=
  match t with
  | XIgnore => Some Ignore
  | XStrict => Some Strict
  | XReplace => Some Replace
  | XCall _ => None
  end.

Definition erase_outcome (o : xoutcome) : outcome :=
  match o with
  | XDone text cap => Done (text_len text) cap
  | XDecodeError idx ml => DecodeError idx ml
  | XCallbackError => CallbackError
  | XPanicked p => Panicked p
  | XOutOfFuel => OutOfFuel
  end.

Section Erase.
  Variable dstate : Type.
  Variable xstep : dstate -> list N -> N -> dstate * xresult * list N.
  Variables div min : N.

  Definition erase_config (c : xconfig dstate) : config dstate :=
    Config (x_total c) (x_dec c) (text_len (x_text c)) (x_cap c).

  Lemma xloop_go_erase : forall xt t input fuel c, erase_trap xt = Some t ->
      erase_outcome (xloop_go dstate xstep div min fuel xt input c)
      = loop_go dstate (erase_step xstep) div min fuel t input (erase_config c).
  Proof.
    intros xt t input. induction fuel as [|f IH]; intros c Ht; [reflexivity|].
    cbn [xloop_go loop_go]. unfold xloop_step, loop_step, erase_config, erase_step. cbn [c_total c_dec c_len c_cap].
    destruct (nlen input <? x_total c); [reflexivity|].
    destruct (xstep (x_dec c) (skipn (N.to_nat (x_total c)) input) (x_cap c - text_len (x_text c))) as [[d' r] cs].
    destruct r as [|rd|ml af rd]; cbn [erase_result].
    - destruct (_ <? text_len cs); [reflexivity|]. cbn [erase_outcome]. rewrite text_len_app. reflexivity.
    - destruct (_ <? text_len cs); [reflexivity|]. rewrite IH by exact Ht. unfold erase_config.
      cbn [x_total x_dec x_text x_cap]. rewrite text_len_app. reflexivity.
    - destruct (_ <? text_len cs); [reflexivity|].
      destruct xt; inversion Ht; subst t.
      + rewrite IH by reflexivity. unfold erase_config. cbn [x_total x_dec x_text x_cap]. rewrite text_len_app. reflexivity.
      + destruct (malformed_index false _ _ _ _); reflexivity.
      + rewrite IH by reflexivity. unfold erase_config. cbn [x_total x_dec x_text x_cap].
        rewrite !text_len_app. reflexivity.
  Qed.
End Erase.

Lemma xdecode_loop_erase : forall xt t e input fuel, erase_trap xt = Some t ->
    erase_outcome (xdecode_loop_impl decoder_step fuel (new_decoder e) xt input)
    = decode_loop_impl (erase_step decoder_step) fuel (new_decoder e) t input.
Proof.
  intros xt t e input fuel Ht. unfold xdecode_loop_impl, xdecode_loop, decode_loop_impl, decode_loop.
  rewrite (xloop_go_erase decoder decoder_step RESERVE_DIV RESERVE_MIN xt t input fuel _ Ht). reflexivity.
Qed.

(* The one exit of Utf16Decoder the model does not render literally *)
(* With a neutral state, or room for an astral character, a call never reports OutputFull after having
   consumed ALL of its input: the end-of-input exit `(OutputFull, 0, 0)` of utf_16.rs is not taken. *)
Lemma u16_no_eof_full : forall be fuel st rem spare rd st' rd' cs,
    w_pending_bmp st = false -> (length rem < fuel)%nat ->
    u16_neutral st = true \/ 4 <= spare ->
    u16_loop fuel be true st rem spare rd = (st', XOutputFull rd', cs) -> rd' < rd + nlen rem.
Proof.
  intros be. induction fuel as [|f IH]; intros st rem spare rd st' rd' cs Hpbf Hfuel HP H; [lia|].
  cbn [u16_loop] in H.
  destruct (u16_fast_facts be st rem spare) as (cs0 & k & err & rem1 & Ef & Ht & Hkn & Hl1 & Hl1' & Hk0 & Hpos & Herr).
  rewrite Ef in H. clear Ef.
  destruct err; [discriminate|].
  destruct st as [ls lb pb]. cbn [w_surrogate w_lead_byte w_pending_bmp] in H, Hpbf. subst pb.
  assert (Hsp1 : u16_neutral (U16 ls lb false) = false -> 4 <= spare - text_len cs0).
  { intros En. destruct (Hk0 En) as [-> ->]. cbn [text_len]. destruct HP as [HP|HP]; [congruence|lia]. }
  destruct rem1 as [|b tl].
  - cbn [andb] in H. destruct (u16_neutral (U16 ls lb false)) eqn:En; cbn [negb] in H; [discriminate|].
    specialize (Hsp1 eq_refl). rewrite (proj2 (N.ltb_ge (spare - text_len cs0) 3)) in H by lia.
    destruct (negb (ls =? 0)); [destruct lb; discriminate|discriminate].
  - rewrite nlen_cons in Hl1. cbn [length] in Hl1'.
    destruct (N.ltb_spec (spare - text_len cs0) 4) as [Hfull|Hroom].
    { inversion H; subst. lia. }
    assert (Hrec : forall st2 sp2 s c,
               u16_loop f be true st2 tl sp2 (rd + k + 1) = (s, XOutputFull rd', c) -> w_pending_bmp st2 = false ->
               u16_neutral st2 = true \/ 4 <= sp2 -> rd' < rd + nlen rem).
    { intros st2 sp2 s c E Hb2 HP2. pose proof (IH st2 tl sp2 (rd + k + 1) s rd' c Hb2 ltac:(lia) HP2 E). lia. }
    destruct lb as [lead|].
    + set (u := code_unit be lead b) in *.
      destruct (high_surrogate u).
      { destruct (negb (ls =? 0)); [discriminate|].
        destruct (u16_loop f be true _ tl _ _) as [[s r0] c] eqn:E. inversion H; subst.
        eapply Hrec; [exact E|reflexivity|right; lia]. }
      destruct (low_surrogate u).
      { destruct (ls =? 0); [discriminate|].
        destruct (u16_loop f be true _ tl _ _) as [[s r0] c] eqn:E. inversion H; subst.
        eapply Hrec; [exact E|reflexivity|left; reflexivity]. }
      destruct (N.eqb_spec ls 0) as [Hls|Hls]; cbn [negb] in H; [|discriminate].
      destruct (u16_loop f be true _ tl _ _) as [[s r0] c] eqn:E. inversion H; subst.
      eapply Hrec; [exact E|reflexivity|left; reflexivity].
    + destruct (u16_loop f be true _ tl _ _) as [[s r0] c] eqn:E. inversion H; subst.
      eapply Hrec; [exact E|reflexivity|right; lia].
Qed.

(* Hence: whenever a call of the UTF-16 decoder model reports OutputFull with all of its input consumed (the
   only way to reach that exit, or the preamble's), it has read nothing and written nothing: the model's
   (read, written) there is the literal (0, 0) of utf_16.rs.  (pending_bmp is only ever set together with
   lead_byte = None: Malformed(2, 2) is returned right after a whole code unit.) *)
Lemma u16_eof_exit_literal : forall be st rem spare st' rd' cs,
    (w_pending_bmp st = true -> w_lead_byte st = None) ->
    u16_raw be true st rem spare = (st', XOutputFull rd', cs) -> rd' = nlen rem -> rem = [] /\ cs = [] /\ st' = st.
Proof.
  intros be st rem spare st' rd' cs Hinv H Hall. unfold u16_raw in H.
  destruct (w_pending_bmp st) eqn:Hpb.
  { destruct (spare <? 3).
    - inversion H as [[E1 E2 E3]]. rewrite <- E2 in Hall. symmetry in Hall. apply nlen_zero in Hall.
      split; [exact Hall|]. split; reflexivity.
    - rewrite (Hinv eq_refl) in H.
      destruct (u16_loop _ be true _ rem _ 0) as [[s r0] c] eqn:E. inversion H; subst s r0 cs. clear H.
      pose proof (u16_no_eof_full be _ (U16 0 None false) rem _ 0 st' rd' c eq_refl (Nat.lt_succ_diag_r _) (or_introl eq_refl) E). lia. }
  destruct (u16_neutral st) eqn:En.
  { pose proof (u16_no_eof_full be _ st rem spare 0 st' rd' cs Hpb (Nat.lt_succ_diag_r _) (or_introl En) H). lia. }
  destruct (N.le_gt_cases 4 spare) as [Hs|Hs].
  { pose proof (u16_no_eof_full be _ st rem spare 0 st' rd' cs Hpb (Nat.lt_succ_diag_r _) (or_intror Hs) H). lia. }
  cbn [u16_loop] in H. rewrite En in H. cbn [andb text_len] in H. rewrite N.sub_0_r, N.add_0_r in H.
  destruct rem as [|b tl].
  - cbn [andb negb] in H. destruct (spare <? 3).
    + inversion H; subst. repeat split; reflexivity.
    + destruct (negb (w_surrogate st =? 0)); [destruct (w_lead_byte st); discriminate|discriminate].
  - rewrite (proj2 (N.ltb_lt spare 4) Hs) in H. inversion H as [[E1 E2 E3]]. rewrite nlen_cons in Hall. lia.
Qed.
