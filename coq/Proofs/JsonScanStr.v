(* C13, scanner half (3): a JSON string.  The double-quoted scalar loop (C04: Proofs/FlowScalarProofs.v, QuotedFoldProofs.v)
   run on one segment of literal characters (blanks included), two-character escapes and \uXXXX escapes, with the exact
   final state; then fetch_flow_scalar around it (simple key, whitespace up to the next token, sc_adjacent). *)
From Coq Require Import List NArith ZArith Bool Arith Lia.
Import ListNotations.
Require Import Parser SBase SPrim SDir SScalar SFetch Pipe Json FlowFold FlowScalarProofs PlainScalarProofs QuotedFoldProofs JsonScanBase JsonScanTok.
Open Scope N_scope.
Open Scope mon_scope.

Arguments scan_flow_scalar : simpl never.

(* the characters between the quotes *)
Lemma quoted_body F start s0 items tail l m :
  forallb item_wf items = true -> (length items + 3 <= F)%nat -> (sc_indent s0 <= Z.of_N (m_col m))%Z -> m_col m <> 0 ->
  exists l' w',
    loop F false start F [] false 0 [] (st_with s0 (flat_map item_src items ++ 34 :: tail) l m false)
    = Ok (rev (map item_val items), st_with s0 (34 :: tail) l' (adv (N.of_nat (length (flat_map item_src items))) m) w').
Proof.
  intros Hwf HF Hind Hcol.
  set (Q := fun (acc : list chr) (m' : marker) (o : outcome (list chr * sc strin)) =>
              exists l' w', o = Ok (acc, st_with s0 (34 :: tail) l' m' w')).
  assert (Hafter : forall fc f acc l0 m0 w0, (1 <= fc)%nat -> (1 <= f)%nat -> colq_ok s0 m0 ->
            Q acc m0 (bind (consume_nonws str_ops fc false acc start) (after_word F false (loop F false start f) false 0 [])
                           (st_with s0 (34 :: tail) l0 m0 w0))).
  { intros fc f acc l0 m0 w0 Hfc _ _. destruct fc as [|fc]; [lia|].
    assert (Hs : stops false 34 tail) by (right; split; [reflexivity|discriminate]).
    rewrite (bind_Ok _ _ _ _ _ (consume_nonws_stop false 34 tail fc acc start s0 l0 m0 w0 Hs)).
    rewrite (after_word_quote F false s0 _ false 0 [] acc false tail). unfold Q. eauto. }
  destruct (PWq_PBq F false start s0 34 tail Q 1 Hafter eq_refl items) as [W _].
  destruct F as [|F']; [lia|]. cbn [loop].
  assert (Hhead : exists x tl0, flat_map item_src items ++ 34 :: tail = x :: tl0 /\ is_z x = false).
  { pose proof (ssrc_no_nul false items Hwf) as Hnn. unfold ssrc, isrc in Hnn.
    destruct (flat_map item_src items) as [|x r] eqn:E.
    - exists 34, tail. split; reflexivity.
    - exists x, (r ++ 34 :: tail). split; [reflexivity|]. inversion Hnn; subst. unfold is_z. apply N.eqb_neq. assumption. }
  destruct Hhead as (x & tl0 & Ex & Hz).
  rewrite Ex. rewrite loop_body_head; [|exact Hz|intros E; contradiction|exact Hind]. rewrite <- Ex.
  specialize (W (S F') F' [] (Nat.max l 4) m false Hwf (fun _ => quote_plain_head false)).
  unfold Q in W. rewrite app_nil_r in W. apply W; try (cbn [length]; lia). exact Hind.
Qed.

(* behind the closing quote *)
(* what may follow a string (after blanks): a line break or the end of input; in a collection also , ] } : *)
Definition sfollow (fl : N) (c : N) : bool :=
  is_breakz c || ((0 <? fl) && ((c =? 44) || (c =? 125) || (c =? 93) || (c =? 58))).

Lemma sfollow_stop fl c : sfollow fl c = true -> (c =? 32) = false /\ (c =? 9) = false /\ (c =? 35) = false.
Proof.
  unfold sfollow. intros H. apply orb_prop in H as [H|H].
  - destruct (breakz_cases c H) as [-> | [-> | ->]]; repeat split.
  - apply andb_prop in H as [_ H]. repeat (apply orb_prop in H as [H|H]); apply N.eqb_eq in H; subst c; repeat split.
Qed.

Lemma quoted_finish F start s0 str b r l m w :
  forallb is_sp b = true -> sfollow (sc_flow_level s0) (nth 0 r 0) = true -> (length b < F)%nat ->
  exists l',
    finish_flow_scalar F false start str (st_with s0 (34 :: b ++ r) l m w)
    = Ok (({| sp_start := start; sp_end := adv (N.of_nat (length b)) (adv 1 m) |}, TScalar DoubleQuoted (rev str)),
          st_with s0 r l' (adv (N.of_nat (length b)) (adv 1 m)) false).
Proof.
  intros Hb Hf HF. destruct (sfollow_stop _ _ Hf) as (H32 & H9 & H35).
  unfold finish_flow_scalar.
  rewrite (bind_Ok _ _ _ _ _ (skip_non_blank_st s0 (34 :: b ++ r) l m w)). cbn [tl].
  unfold skip_ws_to_eol. rewrite bind_assoc.
  destruct (ws_blanks s0 b (F - length b) false false 0 r l (adv 1 m) false Hb) as (l1 & E1).
  replace (length b + (F - length b))%nat with F in E1 by lia.
  replace (F - length b)%nat with (S (F - length b - 1)) in E1 by lia.
  rewrite ws_stop in E1 by assumption.
  exists (Nat.max l1 1).
  rewrite (bind_Ok _ _ _ _ _ E1). cbn [fst snd]. rewrite bind_assoc.
  assert (E2 : adv_mark (0 + N.of_nat (length b)) (st_with s0 r (Nat.max l1 1) (adv 1 m) false)
               = Ok (tt, st_with s0 r (Nat.max l1 1) (adv (N.of_nat (length b)) (adv 1 m)) false)).
  { rewrite N.add_0_l. reflexivity. }
  rewrite (bind_Ok _ _ _ _ _ E2). rewrite (bind_Ok (ret _) _ _ _ _ eq_refl).
  unfold peek. rewrite (bind_Ok _ _ _ _ _ (peekn_st 0 s0 r (Nat.max l1 1) _ false)).
  rewrite (bind_Ok _ _ _ _ _ (get_st s0 r (Nat.max l1 1) _ false)).
  cbn [sc_flow_level sc_mark st_with].
  match goal with |- context [if ?c then _ else _] => assert (Hacc : c = true) end.
  { unfold sfollow in Hf. apply orb_prop in Hf as [Hf|Hf].
    - rewrite Hf. rewrite orb_true_r. reflexivity.
    - apply andb_prop in Hf as [Hfl Hc]. rewrite Hfl.
      destruct (nth 0 r 0 =? 44), (nth 0 r 0 =? 125), (nth 0 r 0 =? 93), (nth 0 r 0 =? 58); try discriminate Hc;
        cbn [negb andb orb]; rewrite ?orb_true_r; reflexivity. }
  rewrite Hacc. reflexivity.
Qed.

Lemma string_scan F s0 items b r l m w :
  forallb item_wf items = true -> forallb is_sp b = true -> sfollow (sc_flow_level s0) (nth 0 r 0) = true ->
  (length items + 3 <= F)%nat -> (length b < F)%nat -> sc_indent s0 = (-1)%Z ->
  exists l' m' sp,
    scan_flow_scalar str_ops F false (st_with s0 (34 :: flat_map item_src items ++ 34 :: b ++ r) l m w)
    = Ok ((sp, TScalar DoubleQuoted (map item_val items)), st_with s0 r l' m' false).
Proof.
  intros Hwf Hb Hf HF1 HF2 Hind.
  rewrite scan_flow_scalar_phases.
  rewrite (bind_Ok _ _ _ _ _ (mark_st s0 _ l m w)).
  rewrite (bind_Ok _ _ _ _ _ (skip_non_blank_st s0 _ l m w)). cbn [tl].
  destruct (quoted_body F m s0 items (b ++ r) l (adv 1 m) Hwf HF1) as (l1 & w1 & E1).
  { rewrite Hind, adv_col. lia. }
  { rewrite adv_col. lia. }
  rewrite (bind_Ok _ _ _ _ _ E1).
  destruct (quoted_finish F m s0 (rev (map item_val items)) b r l1 (adv (N.of_nat (length (flat_map item_src items))) (adv 1 m)) w1 Hb Hf HF2)
    as (l2 & E2).
  rewrite E2. rewrite rev_involutive. eauto.
Qed.

(* fetch_flow_scalar: the string token, the whitespace behind it, sc_adjacent *)
Lemma string_tail F items w1 rest2 l mk q adj ska p tn km tls fl tp ta lws ifms :
  forallb item_wf items = true -> wsb w1 = true -> tokstart rest2 -> sfollow fl (nth 0 rest2 0) = true ->
  (length items + 3 <= F)%nat -> (length w1 < F)%nat ->
  exists l' mk' lws' ska' sp mks,
    fnt_tail F (mkst (34 :: flat_map item_src items ++ 34 :: w1 ++ rest2) l mk q adj ska (skey p tn km :: tls) fl tp ta lws ifms)
    = Ok (tt, mkst rest2 l' mk' (q ++ [(sp, TScalar DoubleQuoted (map item_val items))]) (m_index mk') ska'
                ((if ska then skey true (tp + N.of_nat (length q)) mks else skey p tn km) :: tls) fl tp ta lws' ifms)
    /\ (0 < fl -> ska' = false).
Proof.
  intros Hwf Hw Hts Hfol HF1 HF2.
  destruct (ws_split w1 Hw) as (b & w1' & -> & Hb & Hw' & Hs).
  rewrite app_length in HF2.
  set (top' := if ska then skey true (tp + N.of_nat (length q)) mk else skey p tn km).
  set (s0 := mkst [] 0 mk0 q adj false (top' :: tls) fl tp ta false ifms).
  assert (Hf' : sfollow (sc_flow_level s0) (nth 0 (w1' ++ rest2) 0) = true).
  { destruct Hs as [-> | Hs]; [exact Hfol|]. destruct w1' as [|c w1']; [discriminate|]. cbn [app nth] in *.
    unfold sfollow, is_breakz. rewrite Hs. reflexivity. }
  destruct (string_scan F s0 items b (w1' ++ rest2) l mk lws Hwf Hb Hf' HF1 ltac:(lia) eq_refl) as (l1 & m1 & sp & E1).
  destruct (skip_ws_mk (length w1') w1' (le_n _) F rest2 l1 m1 q adj false (top' :: tls) fl tp ta false ifms ltac:(lia) Hw' Hts)
    as (l2 & mk' & lws' & ska' & E2 & H1 & _ & _).
  exists l2, mk', lws', ska', sp, mk. split; [|exact H1].
  unfold fnt_tail, disp. unfold mkst at 1. cbn. rewrite col_not_lt_indent. cbn.
  unfold fetch_flow_scalar.
  assert (Esave : (save_simple_key ;;; disallow_simple_key)
                    (mkst (34 :: flat_map item_src items ++ 34 :: (b ++ w1') ++ rest2) l mk q adj ska (skey p tn km :: tls) fl tp ta lws ifms)
                  = Ok (tt, st_with s0 (34 :: flat_map item_src items ++ 34 :: b ++ w1' ++ rest2) l mk lws)).
  { unfold save_simple_key, disallow_simple_key, mkst, s0, top', st_with. rewrite <- app_assoc. destruct ska; cbn.
    - rewrite indent_ne_col, andb_false_r. cbn. reflexivity.
    - reflexivity. }
  unfold mkst in Esave. rewrite <- bind_assoc. rewrite (bind_Ok _ _ _ _ _ Esave).
  rewrite (bind_Ok _ _ _ _ _ E1).
  change (st_with s0 (w1' ++ rest2) l1 m1 false) with (mkst (w1' ++ rest2) l1 m1 q adj false (top' :: tls) fl tp ta false ifms).
  rewrite (bind_Ok _ _ _ _ _ E2). unfold mkst. cbn. reflexivity.
Qed.

(* fetch_next_token: insignificant whitespace, then the string *)
Lemma fnt_string F items w w1 rest2 l mk q adj ska p tn km tls fl tp ta lws ifms :
  forallb item_wf items = true -> wsb w = true -> wsb w1 = true -> tokstart rest2 -> sfollow fl (nth 0 rest2 0) = true ->
  (length w < F)%nat -> (length items + 3 <= F)%nat -> (length w1 < F)%nat -> calm fl (skey p tn km :: tls) ->
  exists l' mk' lws' ska' sp p' tn' km',
    fetch_next_token str_ops F (mkst (w ++ 34 :: flat_map item_src items ++ 34 :: w1 ++ rest2) l mk q adj ska (skey p tn km :: tls) fl tp ta lws ifms)
    = Ok (tt, mkst rest2 l' mk' (q ++ [(sp, TScalar DoubleQuoted (map item_val items))]) (m_index mk') ska'
                (skey p' tn' km' :: tls) fl tp ta lws' ifms)
    /\ (0 < fl -> ska' = false) /\ (ska = true -> p' = true /\ tn' = tp + N.of_nat (length q)).
Proof.
  intros Hwf Hw Hw1 Hts Hfol HF HF1 HF2 Hcalm.
  destruct (fnt_prefix F w 34 (flat_map item_src items ++ 34 :: w1 ++ rest2) l mk q adj ska (skey p tn km :: tls) fl tp ta lws ifms HF Hw)
    as (l0 & mk0' & lws0 & ska0 & E0 & _ & B & _); try (repeat split; reflexivity). { exact Hcalm. }
  destruct (string_tail F items w1 rest2 l0 mk0' q adj ska0 p tn km tls fl tp ta lws0 ifms Hwf Hw1 Hts Hfol HF1 HF2)
    as (l' & mk' & lws' & ska' & sp & mks & E1 & Hska).
  destruct ska0 eqn:Es.
  - exists l', mk', lws', ska', sp, true, (tp + N.of_nat (length q)), mks. split; [rewrite E0; exact E1|]. split; [exact Hska|]. auto.
  - exists l', mk', lws', ska', sp, p, tn, km. split; [rewrite E0; exact E1|]. split; [exact Hska|].
    intros Hs. discriminate (B Hs).
Qed.
