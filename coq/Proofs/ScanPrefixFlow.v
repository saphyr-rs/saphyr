(* C15 prefix stability of the scanner (see ScanPrefix.v): the family of QUOTED (flow) SCALARS (Model/SScalar.v) under
   the state relation [SH d] of ScanPrefix.v.

     scan_flow_scalar_ok : forall d, shf_scan_flow_scalar d

   Port of ScanShiftFlow.v.  The new reasoning is the END OF INPUT of side 1: a quoted scalar must be closed by its
   quote, so side 1 can reach the end of its text only to fail: the main loop tests "next is NUL" (error 71) at the
   head of every iteration, before consume_nonws is entered; consume_nonws therefore runs inside side 1's text
   (invariant [rm s1 <> []]), and consumes only characters that are neither breaks nor NUL before it looks again,
   but for the escaped line break, after which it returns at once.  flow_blanks (blind classes only) may stop at the
   end of side 1; the next iteration of the main loop then fails on side 1 (no claim).  TWO fuels everywhere. *)
From Coq Require Import List NArith ZArith Bool Arith Lia.
Import ListNotations.
Require Import Parser SBase SPrim SDir SScalar SFetch ScanLoops ScanPrefix ScanPrefixPrim.
Local Open Scope nat_scope.

Lemma nbz_of_nbk_nz c : is_break c = false -> c <> 0%N -> nbz c.
Proof.
  intros HB HZ. unfold nbz, is_breakz. rewrite HB. cbn [orb]. unfold is_z. apply N.eqb_neq. exact HZ.
Qed.
Lemma atend_ne (s : bst) : rm s <> [] -> atend s = false.
Proof. unfold atend. destruct (rm s); [contradiction|reflexivity]. Qed.

Section BrkFlow.
Variable d : list chr.
Local Notation bwp := (swp d).

Ltac case_if E := match goal with |- swp _ (if ?b then _ else _) (if ?b then _ else _) _ _ _ => destruct b eqn:E end.

(* escapes *)
(* read_hex n i peeks at offsets i .. i+n-1 and does not touch the state; the offsets before i are neither breaks nor
   NUL, and a hex digit is neither (the same characters are read on both sides) *)
Lemma bwp_read_hex n : forall i acc st1 st2 (Q : N -> bst -> N -> bst -> Prop) s1 s2,
  SH d s1 s2 -> MS d st1 st2 -> noLF i (rm s1) ->
  (forall v, noLF (i + n) (rm s1) -> Q v s1 v s2) ->
  bwp (read_hex sops n i acc st1) (read_hex sops n i acc st2) Q s1 s2.
Proof.
  induction n as [|n IH]; intros i acc st1 st2 Q s1 s2 H HM HL HQ; cbn [read_hex].
  - apply bwp_ret. apply HQ. rewrite Nat.add_0_r. exact HL.
  - apply bwp_bind. apply (bwp_peekn d i); [exact H|exact HL|]. cbv beta. b1_norm.
    destruct (is_hex (rn s1 i)) eqn:Eh; [|apply bwp_fail; exact HM].
    assert (Ni : nbz (rn s1 i)) by (nbz_by Eh).
    rewrite (b1_nbz _ Ni).
    apply IH; [exact H|exact HM|apply noLF_S; [exact HL|exact Ni]|].
    intros v Hv. apply HQ. replace (i + S n) with (S i + n) by lia. exact Hv.
Qed.

(* resolve_escape: entered at [\] followed by a character that is not a line break (that arm came first); it
   consumes at least two characters, none of them a break or NUL: side 1 does not reach its end *)
Lemma bwp_resolve_escape st1 st2 (Q : chr -> bst -> chr -> bst -> Prop) s1 s2 :
  SH d s1 s2 -> MS d st1 st2 -> noLF 2 (rm s1) ->
  (forall r t1 t2, SH d t1 t2 -> rm t1 <> [] -> Q r t1 r t2) ->
  bwp (resolve_escape sops st1) (resolve_escape sops st2) Q s1 s2.
Proof.
  intros H HM HL HQ. unfold resolve_escape.
  assert (N1 : nbz (rn s1 1)) by (exact (HL 1 ltac:(lia))).
  apply bwp_bind. apply (bwp_peekn d 1); [exact H|apply (noLF_le 2); [exact HL|lia]|]. cbv beta.
  rewrite (b1_nbz _ N1).
  destruct (assocc (rn s1 1) escape_table) as [r|].
  - apply bwp_bind. apply (bwp_skip_n_non_blank d 2); [exact H|exact HL|lia|]. intros t1 t2 HT RT.
    apply bwp_ret. apply HQ; [exact HT|]. rewrite RT. apply (skipn_nonempty_of_noLF d s1 s2); [exact H|exact HL|lia].
  - cbv zeta. destruct (Nat.eqb (code_length (rn s1 1)) 0) eqn:Ecl; [apply bwp_fail; exact HM|].
    assert (Hcl : 0 < code_length (rn s1 1)) by (apply Nat.eqb_neq in Ecl; lia).
    apply bwp_bind. apply (bwp_skip_n_non_blank d 2); [exact H|exact HL|lia|]. intros u1 u2 HU _.
    apply bwp_bind. apply (bwp_look d); [exact HU|]. intros v1 v2 HV _ _ _ _ _.
    apply bwp_bind. apply bwp_read_hex; [exact HV|exact HM|apply noLF_0|]. intros v HLv. cbv beta.
    destruct (is_scalar_value v); [|apply bwp_fail; exact HM].
    apply bwp_bind. apply (bwp_skip_n_non_blank d); [exact HV|exact HLv|exact Hcl|]. intros t1 t2 HT RT.
    apply bwp_ret. apply HQ; [exact HT|]. rewrite RT. apply (skipn_nonempty_of_noLF d v1 v2); [exact HV|exact HLv|exact Hcl].
Qed.

(* consume_flow_scalar_non_whitespace_chars *)
(* entered inside side 1's text (the main loop has just seen that the next character is not NUL) *)
Lemma bwp_consume_nonws f1 : forall f2 single acc st1 st2
  (Q : list chr * bool -> bst -> list chr * bool -> bst -> Prop) s1 s2,
  SH d s1 s2 -> MS d st1 st2 -> rm s1 <> [] -> (forall r t1 t2, SH d t1 t2 -> Q r t1 r t2) ->
  bwp (consume_nonws sops f1 single acc st1) (consume_nonws sops f2 single acc st2) Q s1 s2.
Proof.
  induction f1 as [|f1 IH]; intros f2 single acc st1 st2 Q s1 s2 H HM NE0 HQ; [exact I|].
  destruct f2 as [|f2]; [apply bwp_oof_r|]. cbn [consume_nonws].
  apply bwp_bind. apply (bwp_look d); [exact H|]. intros u1 u2 HU RU _ _ _ _.
  assert (NE : rm u1 <> []) by (exact (SH_ne_eq s1 u1 NE0 RU)).
  apply bwp_bind. apply (bwp_peek d); [exact HU|]. cbv beta.
  rewrite (SH_b1_in d u1 u2 HU NE).
  destruct (is_blank_or_breakz (rn u1 0)) eqn:Ebb; [apply bwp_ret; apply HQ; exact HU|].
  (* the character is not blank/breakz: position 1 lies inside side 1's text *)
  assert (N0 : nbz (rn u1 0)) by (nbz_by Ebb).
  apply bwp_bind. apply (bwp_peekn_same d 1); [exact HU|apply noLF_1; exact N0|exact NE|]. intros NZ1. cbv beta.
  case_if E1.
  { (* '' in a single-quoted scalar *)
    assert (HL2 : noLF 2 (rm u1)).
    { apply noLF_S; [apply noLF_1; exact N0|].
      apply andb_true_iff in E1. destruct E1 as [E1 _]. apply andb_true_iff in E1. destruct E1 as [_ E1].
      exact (lit_eq_nbz (rn u1 1) 39%N eq_refl E1). }
    apply bwp_bind. apply (bwp_skip_n_non_blank d 2); [exact HU|exact HL2|lia|].
    intros v1 v2 HV RV. apply IH; [exact HV|exact HM| |exact HQ].
    rewrite RV. apply (skipn_nonempty_of_noLF d u1 u2); [exact HU|exact HL2|lia]. }
  case_if E2; [apply bwp_ret; apply HQ; exact HU|].
  case_if E3; [apply bwp_ret; apply HQ; exact HU|].
  destruct ((rn u1 0 =? 92)%N && negb single) eqn:E4; cbn [andb].
  - destruct (is_break (rn u1 1)) eqn:Ebk.
    + (* an escaped line break: [\] consumed in lockstep, then the break; then consume_nonws returns *)
      apply bwp_bind. apply (bwp_look d); [exact HU|]. intros v1 v2 HV RV _ _ _ _.
      apply bwp_bind. apply (bwp_skip_non_blank d); [exact HV|rewrite (rn_eq v1 u1 0 RV); exact N0|]. intros w1 w2 HW _.
      apply bwp_bind. apply (bwp_skip_linebreak d); [exact HW|]. intros x1 x2 HX _.
      apply bwp_ret. apply HQ. exact HX.
    + (* an escape sequence: the escape character is neither a line break nor NUL *)
      apply bwp_bind. apply bwp_resolve_escape; [exact HU|exact HM| |].
      * apply noLF_S; [apply noLF_1; exact N0|]. exact (nbz_of_nbk_nz _ Ebk NZ1).
      * intros r v1 v2 HV NEV. apply IH; [exact HV|exact HM|exact NEV|exact HQ].
  - apply bwp_bind. apply (bwp_skip_non_blank d); [exact HU|exact N0|]. intros v1 v2 HV RV.
    apply IH; [exact HV|exact HM|exact (SH_ne_tl d u1 u2 v1 HU N0 RV)|exact HQ].
Qed.

(* the blank-consuming loop (line folding) *)
(* blanks and breaks only (blind classes): it may stop at the end of side 1, with the same tuple on both sides *)
Lemma bwp_flow_blanks f1 : forall f2 lbl lb tb ws
  (Q : bool * bool * N * list chr -> bst -> bool * bool * N * list chr -> bst -> Prop) s1 s2,
  SH d s1 s2 -> (forall r t1 t2, SH d t1 t2 -> Q r t1 r t2) ->
  bwp (flow_blanks sops f1 lbl lb tb ws) (flow_blanks sops f2 lbl lb tb ws) Q s1 s2.
Proof.
  induction f1 as [|f1 IH]; intros f2 lbl lb tb ws Q s1 s2 H HQ; [exact I|].
  destruct f2 as [|f2]; [apply bwp_oof_r|]. cbn [flow_blanks].
  apply bwp_bind. apply (bwp_peek d); [exact H|]. cbv beta. b1_norm.
  destruct (is_blank (rn s1 0)) eqn:Ebl.
  - assert (N0 : nbz (rn s1 0)) by (nbz_by Ebl).
    rewrite ?(b1_nbz _ N0).
    destruct lbl.
    + apply bwp_bind. apply (bwp_col_lt_indent d); [exact H|]. cbv beta.
      case_if Et; [apply (bwp_mark_fail d); exact H|].
      apply bwp_bind. apply (bwp_skip_blank d); [exact H|exact N0|]. intros u1 u2 HU _.
      apply bwp_bind. apply (bwp_look d); [exact HU|]. intros v1 v2 HV _ _ _ _ _.
      apply IH; [exact HV|exact HQ].
    + apply bwp_bind. apply (bwp_skip_blank d); [exact H|exact N0|]. intros u1 u2 HU _.
      apply bwp_bind. apply (bwp_look d); [exact HU|]. intros v1 v2 HV _ _ _ _ _.
      apply IH; [exact HV|exact HQ].
  - destruct (is_break (rn s1 0)) eqn:Ebk; [|apply bwp_ret; apply HQ; exact H].
    apply bwp_bind. apply (bwp_look d); [exact H|]. intros u1 u2 HU _ _ _ _ _.
    destruct lbl.
    + apply bwp_bind. apply (bwp_skip_break d); [exact HU|]. intros v1 v2 HV _ _.
      apply bwp_bind. apply (bwp_look d); [exact HV|]. intros w1 w2 HW _ _ _ _ _.
      apply IH; [exact HW|exact HQ].
    + apply bwp_bind. apply (bwp_skip_break d); [exact HU|]. intros v1 v2 HV _ _.
      apply bwp_bind. apply (bwp_look d); [exact HV|]. intros w1 w2 HW _ _ _ _ _.
      apply IH; [exact HW|exact HQ].
Qed.

(* the main loop *)
(* at the exit the next character is the closing quote: neither a line break nor NUL.  An iteration entered at the
   end of side 1 fails on side 1 (70 or 71): no claim. *)
Lemma bwp_flow_go F1 F2 single st1 st2 f1 : forall f2 acc lb tb ws s1 s2,
  SH d s1 s2 -> MS d st1 st2 ->
  bwp (flow_go sops F1 single st1 f1 acc lb tb ws) (flow_go sops F2 single st2 f2 acc lb tb ws)
      (fun r1 t1 r2 t2 => r1 = r2 /\ SH d t1 t2 /\ nbz (rn t1 0)) s1 s2.
Proof.
  induction f1 as [|f1 IH]; intros f2 acc lb tb ws s1 s2 H HM; [exact I|].
  destruct f2 as [|f2]; [apply bwp_oof_r|]. cbn [flow_go].
  apply bwp_bind. apply (bwp_look d); [exact H|]. intros u1 u2 HU _ _ _ _ _.
  apply bwp_bind. apply bwp_get. cbv beta. sh_sync HU.
  destruct (N.eq_dec (rn u1 0) 0) as [Z0|NZ0].
  { (* side 1 stands at the end of its input: it fails (70 or 71) *)
    apply bwp_bind.
    apply bwp_mono with (Q := fun (_ : bool) t1 (_ : bool) t2 => t1 = u1 /\ t2 = u2).
    { destruct (m_col (sc_mark u1) =? 0)%N.
      - apply (bwp_next_is_document_indicator d); [exact HU|]. split; reflexivity.
      - apply bwp_ret. split; reflexivity. }
    intros di t1 di' t2 [-> ->].
    destruct di; [apply bwp_err_l|].
    eapply bwp_err_eval. unfold bind at 1. unfold next_is. unfold bind at 1. rewrite peek_ok. unfold ret at 1.
    cbv beta iota. rewrite Z0. reflexivity. }
  assert (NE : rm u1 <> []) by (exact (SH_nonempty NZ0)).
  apply bwp_bind.
  apply bwp_mono with (Q := Qe (fun _ t1 t2 => t1 = u1 /\ t2 = u2)).
  { destruct (m_col (sc_mark u1) =? 0)%N.
    - apply (bwp_next_is_document_indicator d); [exact HU|]. rewrite (atend_ne u1 NE), orb_false_r.
      split; [reflexivity|split; reflexivity].
    - apply bwp_ret. split; [reflexivity|split; reflexivity]. }
  intros di t1 di' t2 [<- [-> ->]].
  destruct di; [apply bwp_fail; exact HM|].
  apply bwp_bind. apply (bwp_next_is_in d); [exact HU|exact NE|]. cbv beta.
  destruct (is_z (rn u1 0)); [apply bwp_fail; exact HM|].
  apply bwp_bind. apply (bwp_col_lt_indent d); [exact HU|]. cbv beta.
  case_if Et; [apply bwp_fail; exact HM|].
  apply bwp_bind. apply bwp_consume_nonws; [exact HU|exact HM|exact NE|]. intros [acc' lbl] v1 v2 HV. cbv beta iota.
  apply bwp_bind. apply (bwp_look_ch d); [exact HV|]. intros w1 w2 HW _ _ _ _. cbv beta. b1_norm.
  case_if Equ.
  { apply bwp_ret. split; [reflexivity|split; [exact HW|]].
    destruct single; cbn [andb negb orb] in Equ.
    - rewrite orb_false_r in Equ. exact (lit_eq_nbz (rn w1 0) 39%N eq_refl Equ).
    - exact (lit_eq_nbz (rn w1 0) 34%N eq_refl Equ). }
  apply bwp_bind. apply bwp_flow_blanks; [exact HW|]. intros [[[lbl' lb'] tb'] ws'] x1 x2 HX. cbv beta iota.
  destruct lbl'; [|apply IH; [exact HX|exact HM]].
  destruct (negb lb'); [apply IH; [exact HX|exact HM]|].
  destruct (tb' =? 0)%N; apply IH; [exact HX|exact HM|exact HX|exact HM].
Qed.

(* scan_flow_scalar *)
Theorem scan_flow_scalar_ok : shf_scan_flow_scalar d.
Proof.
  unfold shf_scan_flow_scalar. intros F1 F2 single s1 s2 H N0. rewrite !scan_flow_scalar_eq.
  apply bwp_bind. apply (bwp_mark d); [exact H|]. intros HM0.
  apply bwp_bind. apply (bwp_skip_non_blank d); [exact H|exact N0|]. intros u1 u2 HU _.
  apply bwp_bind. eapply bwp_mono; [apply bwp_flow_go; [exact HU|exact HM0]|].
  intros r1 v1 r2 v2 (<- & HV & NV). cbv beta.
  (* the closing quote is not the last character of side 1's text *)
  apply bwp_bind. apply (bwp_skip_non_blank d); [exact HV|exact NV|]. intros w1 w2 HW RW.
  assert (NEW : rm w1 <> []) by (exact (SH_ne_tl d v1 v2 w1 HV NV RW)).
  apply bwp_bind. eapply bwp_mono; [apply skip_ws_to_eol_ok; exact HW|].
  intros a1 x1 a2 x2 (<- & HX & HNE). cbv beta.
  assert (NEX : rm x1 <> []) by (exact (HNE NEW)).
  apply bwp_bind. apply (bwp_peek d); [exact HX|]. cbv beta.
  rewrite (SH_b1_in d x1 x2 HX NEX).
  apply bwp_bind. apply bwp_get. cbv beta zeta. sh_sync HX.
  unfold MS in HM0. rewrite <- HM0.
  case_if Ec; [|apply bwp_fail; first [apply MS_refl|exact (sh_mark HX)]].
  apply (bwp_ret_bpost d); [|exact HX]. apply TS_mk. apply SPS_mk; first [apply MS_refl|exact (sh_mark HX)].
Qed.

End BrkFlow.

Print Assumptions scan_flow_scalar_ok.
