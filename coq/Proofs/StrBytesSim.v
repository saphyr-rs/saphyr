(* C10 — composing the per-method refinements of Proofs/StrBytesProofs.v inside the scanner monad.

   The scanner model is written over [InputOps] and calls the provided-method definitions of Model/SPrim.v; a scanner
   that calls the byte-level overrides of Model/StrBytes.v instead is the same monadic program with each such call
   replaced by the lifted override ([lift_q] / [lift_m] below).  This file gives the simulation calculus that makes
   the replacement argument checkable: [simp P m n] (from RS-related scanner states satisfying P, whatever the
   character-level computation m returns properly — a value, or an error site at a marker — the byte-level computation
   n returns too, and the states are related again), its closure under ret / bind / the state operations that do not
   touch the input, the lifting of every per-method theorem, and three composite scanner primitives redone over the
   overrides: the scanner's own skip_ws_to_eol wrapper (scanner.rs 906), skip_blank / skip_nl, and skip_linebreak. *)
From Coq Require Import List NArith ZArith Bool Lia.
Import ListNotations.
Require Import Parser SBase SPrim TagSpec StrBytes StrBytesProofs.
Open Scope N_scope.
Open Scope mon_scope.

(* the same scanner state around another input *)
Definition retag {I J} (j : J) (s : sc I) : sc J :=
  {| sc_in := j; sc_mark := sc_mark s; sc_tokens := sc_tokens s;
     sc_stream_start := sc_stream_start s; sc_stream_end := sc_stream_end s; sc_adjacent := sc_adjacent s;
     sc_ska := sc_ska s; sc_sks := sc_sks s; sc_indent := sc_indent s; sc_indents := sc_indents s;
     sc_flow_level := sc_flow_level s; sc_tokens_parsed := sc_tokens_parsed s;
     sc_token_available := sc_token_available s; sc_lws := sc_lws s; sc_ifms := sc_ifms s |}.
Definition RS (s : sc strin) (t : sc bstr) : Prop := RB (sc_in s) (sc_in t) /\ t = retag (sc_in t) s.

Definition simp {A} (P : sc strin -> Prop) (m : @M strin A) (n : @M bstr A) : Prop :=
  forall s t, RS s t -> P s ->
    match m s with
    | Ok (a, s') => exists t', n t = Ok (a, t') /\ RS s' t'
    | Err e k => n t = Err e k
    | Panic _ => True          (* the model's asserts on buflen(), which StrInput does not have *)
    | OutOfFuel => True
    end.

Lemma simp_weaken {A} (P P' : sc strin -> Prop) (m : @M strin A) n : (forall s, P' s -> P s) -> simp P m n -> simp P' m n.
Proof. intros H S s t R Hp. apply S; [exact R|apply H; exact Hp]. Qed.
Lemma simp_ret {A} P (a : A) : simp P (ret a) (ret a).
Proof. intros s t R _. cbn. exists t. split; [reflexivity|exact R]. Qed.
Lemma simp_fail {A} P e : simp P (fun s => @fail strin A e (sc_mark s) s) (fun t => @fail bstr A e (sc_mark t) t).
Proof. intros s t [_ ->] _. reflexivity. Qed.
Lemma simp_bind {A B} P (Q : A -> sc strin -> Prop) (m : @M strin A) n (f : A -> @M strin B) g :
  simp P m n -> (forall a, simp (Q a) (f a) (g a)) -> (forall s a s', P s -> m s = Ok (a, s') -> Q a s') ->
  simp P (bind m f) (bind n g).
Proof.
  intros Sm Sf HQ s t R Hp. unfold bind. specialize (Sm s t R Hp).
  destruct (m s) as [[a s']|e k|k|] eqn:E; [|rewrite Sm; reflexivity|exact I|exact I].
  destruct Sm as (t' & -> & R'). apply Sf; [exact R'|]. eapply HQ; eauto.
Qed.
(* state operations that do not look at the input *)
Lemma simp_gets {A} P (f : sc strin -> A) (g : sc bstr -> A) : (forall s t, RS s t -> f s = g t) -> simp P (gets f) (gets g).
Proof. intros H s t R _. cbn. exists t. rewrite (H s t R). split; [reflexivity|exact R]. Qed.
Lemma simp_modify P (f : sc strin -> sc strin) (g : sc bstr -> sc bstr) :
  (forall s t, RS s t -> RS (f s) (g t)) -> simp P (modify f) (modify g).
Proof. intros H s t R _. cbn. eexists. split; [reflexivity|apply H; exact R]. Qed.
Lemma RS_set_mark m s t : RS s t -> RS (set_mark m s) (set_mark m t).
Proof. intros [R ->]. split; [exact R|reflexivity]. Qed.
Lemma RS_set_lws b s t : RS s t -> RS (set_lws b s) (set_lws b t).
Proof. intros [R ->]. split; [exact R|reflexivity]. Qed.
Lemma RS_set_in s t i j : RS s t -> RB i j -> RS (set_in i s) (set_in j t).
Proof. intros [_ ->] R. split; [exact R|reflexivity]. Qed.
Lemma RS_mark s t : RS s t -> sc_mark s = sc_mark t.
Proof. intros [_ ->]. reflexivity. Qed.

(* lifting the overrides into the scanner monad, and the per-method theorems into [simp] *)
Definition lift_q {A} (f : bstr -> outcome A) : @M bstr A :=
  fun t => match f (sc_in t) with Ok a => Ok (a, t) | Err e k => Err e k | Panic k => Panic k | OutOfFuel => OutOfFuel end.
Definition lift_m {A} (f : bstr -> outcome (A * bstr)) : @M bstr A :=
  fun t => match f (sc_in t) with Ok (a, b) => Ok (a, set_in b t) | Err e k => Err e k | Panic k => Panic k | OutOfFuel => OutOfFuel end.
Definition lift_u (f : bstr -> outcome bstr) : @M bstr unit :=
  fun t => match f (sc_in t) with Ok b => Ok (tt, set_in b t) | Err e k => Err e k | Panic k => Panic k | OutOfFuel => OutOfFuel end.

Lemma simp_of_q {A} P (g : @M strin A) f : q_refines P g f -> simp P g (lift_q f).
Proof.
  intros H s t R Hp. destruct (H s (sc_in t) (proj1 R) Hp) as (a & -> & E). exists t. unfold lift_q. rewrite E.
  split; [reflexivity|exact R].
Qed.
Lemma simp_of_m {A} P (g : @M strin A) f : m_refines P g f -> simp P g (lift_m f).
Proof.
  intros H s t R Hp. destruct (H s (sc_in t) (proj1 R) Hp) as (a & i' & b' & -> & E & R'). exists (set_in b' t).
  unfold lift_m. rewrite E. split; [reflexivity|apply RS_set_in; assumption].
Qed.

Lemma q_refines_weaken {A} (P P' : sc strin -> Prop) (g : @M strin A) f :
  (forall s, P' s -> P s) -> q_refines P g f -> q_refines P' g f.
Proof. intros H Q s b R Hp. apply Q; [exact R|apply H; exact Hp]. Qed.
Lemma m_refines_weaken {A} (P P' : sc strin -> Prop) (g : @M strin A) f :
  (forall s, P' s -> P s) -> m_refines P g f -> m_refines P' g f.
Proof. intros H Q s b R Hp. apply Q; [exact R|apply H; exact Hp]. Qed.

(* the primitives, as the scanner model uses them *)
Lemma simp_look P n : simp P (look str_ops n) (fun t => Ok (tt, set_in (sb_lookahead n (sc_in t)) t)).
Proof.
  intros s t R _. destruct (rb_lookahead _ _ n (proj1 R)) as (s' & b' & E1 & E2 & R'). unfold look. rewrite E1.
  cbn [lookahead bytes_ops] in E2. inversion E2; subst b'. eexists. split; [reflexivity|apply RS_set_in; assumption].
Qed.
Lemma simp_in_skip P : simp P (in_skip str_ops) (lift_u sb_skip).
Proof.
  intros s t R _. destruct (sb_skip_spec _ _ (proj1 R)) as (b' & E & R'). unfold in_skip, modify, lift_u. rewrite E.
  eexists. split; [reflexivity|apply RS_set_in; assumption].
Qed.
Lemma simp_in_skip_n P n : simp P (in_skip_n str_ops n) (lift_u (sb_skip_n n)).
Proof.
  intros s t R _. destruct (rb_skip_n _ _ n (proj1 R)) as (s' & b' & E1 & E2 & R'). unfold in_skip_n, lift_u. rewrite E1.
  cbn [skip_n bytes_ops] in E2. rewrite E2. eexists. split; [reflexivity|apply RS_set_in; assumption].
Qed.
Lemma simp_raw_read P : simp P (raw_read str_ops) (lift_m (fun b => bindo (sb_raw_read_non_breakz_ch b) (fun ob => Ok ob))).
Proof.
  intros s t R _. destruct (rb_raw_read_non_breakz _ _ (proj1 R)) as (o & s' & b' & E1 & E2 & R'). unfold raw_read, lift_m.
  rewrite E1. cbn [raw_read_non_breakz bytes_ops] in E2. rewrite E2. cbn [bindo]. eexists. split; [reflexivity|apply RS_set_in; assumption].
Qed.

(* composite 1: Scanner::skip_ws_to_eol (scanner.rs 906) over the override *)
Definition b_skip_ws_to_eol (st : skiptabs) : @M bstr (bool * bool) :=
  r <- lift_m (sb_skip_ws_to_eol st) ;;
  adv_mark (fst r) ;;;
  match snd r with
  | Some tw => ret tw
  | None => m <- mark ;; fail 40 m
  end.
Definition fueled (fuel : nat) (s : sc strin) : Prop := (length (si_chars (sc_in s)) < fuel)%nat.
Definition anyq {A} (_ : A) (_ : sc strin) : Prop := True.

Lemma simp_adv_mark P n : simp P (adv_mark n) (adv_mark n).
Proof. apply simp_modify. intros s t R. rewrite (RS_mark _ _ R). apply RS_set_mark. exact R. Qed.
Lemma simp_mark_fail {A} P e : simp P (m <- mark ;; @fail strin A e m) (m <- mark ;; @fail bstr A e m).
Proof. intros s t R _. cbn. rewrite (RS_mark _ _ R). reflexivity. Qed.

Theorem simp_skip_ws_to_eol fuel st : simp (fueled fuel) (skip_ws_to_eol str_ops fuel st) (b_skip_ws_to_eol st).
Proof.
  unfold skip_ws_to_eol, b_skip_ws_to_eol.
  eapply (simp_bind _ anyq); [apply simp_of_m; apply sb_skip_ws_to_eol_refines| |intros; exact I].
  intros r. eapply (simp_bind _ anyq); [apply simp_adv_mark| |intros; exact I].
  intros ?. cbv beta. destruct (snd r); [apply simp_ret|apply simp_mark_fail].
Qed.

(* composite 2: skip_blank / skip_non_blank / skip_nl / skip_linebreak over skip, next_2_are, peek *)
Definition b_skip_blank : @M bstr unit := lift_u sb_skip ;;; adv_mark 1.
Definition b_skip_nl : @M bstr unit := lift_u sb_skip ;;; modify (fun s => set_lws true (set_mark (nlm (sc_mark s)) s)).
Definition b_skip_linebreak : @M bstr unit :=
  crlf <- lift_q (sb_next_2_are 13 10) ;;
  if crlf then b_skip_blank ;;; b_skip_nl
  else c <- lift_q sb_peek ;; if is_break c then b_skip_nl else ret tt.

Lemma simp_skip_blank P : simp P (skip_blank str_ops) b_skip_blank.
Proof.
  unfold skip_blank, b_skip_blank. eapply (simp_bind _ anyq); [apply simp_in_skip| |intros; exact I].
  intros ?. cbv beta. apply simp_adv_mark.
Qed.
Lemma simp_skip_nl P : simp P (skip_nl str_ops) b_skip_nl.
Proof.
  unfold skip_nl, b_skip_nl. eapply (simp_bind _ anyq); [apply simp_in_skip| |intros; exact I].
  intros ?. cbv beta. apply simp_modify. intros s t R. rewrite (RS_mark _ _ R). apply RS_set_lws, RS_set_mark. exact R.
Qed.
Theorem simp_skip_linebreak : simp (looked 2) (skip_linebreak str_ops) b_skip_linebreak.
Proof.
  unfold skip_linebreak, b_skip_linebreak.
  eapply (simp_bind _ anyq); [apply simp_of_q; apply sb_next_2_are_refines; discriminate| |intros; exact I].
  intros crlf. destruct crlf.
  - eapply (simp_bind _ anyq); [apply simp_skip_blank| |intros; exact I]. intros ?. cbv beta. apply simp_skip_nl.
  - eapply (simp_bind _ anyq); [apply simp_of_q; apply (q_refines_weaken _ _ _ _ (fun _ _ => I) sb_peek_refines)| |intros; exact I].
    intros c. destruct (is_break c); [apply simp_skip_nl|apply simp_ret].
Qed.

(* ---- composite 3: a whole scanner loop, skip_yaml_whitespace (scanner.rs 873-904), over the overrides:
        look_ch, skip, lookahead, next_2_are, peek, skip_while_non_breakz ---- *)
Definition b_look_ch : @M bstr chr := lift_m sb_look_ch.
Definition b_look (n : nat) : @M bstr unit := fun t => Ok (tt, set_in (sb_lookahead n (sc_in t)) t).
Definition b_syw_go (fuel : nat) :=
  fix go (f : nat) (need : bool) : @M bstr unit :=
     match f with
     | O => oof
     | S f' =>
       c <- b_look_ch ;;
       if c =? 32 then b_skip_blank ;;; go f' false
       else if (c =? 10) || (c =? 13) then
         b_look 2 ;;; b_skip_linebreak ;;; fl <- flow_level ;;
         (if fl =? 0 then allow_simple_key else ret tt) ;;; go f' false
       else if c =? 35 then n <- lift_m sb_skip_while_non_breakz ;; adv_mark n ;;; go f' need
       else if need then m <- mark ;; fail 42 m else ret tt
     end.
Definition b_skip_yaml_whitespace (fuel : nat) : @M bstr unit := b_syw_go fuel fuel true.
(* the loop of Model/SPrim.v skip_yaml_whitespace, named *)
Definition syw_go (fuel : nat) :=
  fix go (f : nat) (need : bool) : @M strin unit :=
     match f with
     | O => oof
     | S f' =>
       c <- look_ch str_ops ;;
       if c =? 32 then skip_blank str_ops ;;; go f' false
       else if (c =? 10) || (c =? 13) then
         look str_ops 2 ;;; skip_linebreak str_ops ;;; fl <- flow_level ;;
         (if fl =? 0 then allow_simple_key else ret tt) ;;; go f' false
       else if c =? 35 then n <- in_skip_while_non_breakz str_ops fuel ;; adv_mark n ;;; go f' need
       else if need then m <- mark ;; fail 42 m else ret tt
     end.
Lemma skip_yaml_whitespace_go fuel : skip_yaml_whitespace str_ops fuel = syw_go fuel fuel true.
Proof. reflexivity. Qed.

(* the character-level pieces never make the text longer *)
Definition keeps (fuel : nat) {A} (m : @M strin A) : Prop :=
  forall s a s', fueled fuel s -> m s = Ok (a, s') -> fueled fuel s'.
Lemma keeps_look_ch fuel : keeps fuel (look_ch str_ops).
Proof. intros s a s' H E. cbv [look_ch look peek peekn bind] in E. cbn [lookahead peek_nth str_ops] in E. inversion E; subst. exact H. Qed.
Lemma keeps_look fuel n : keeps fuel (look str_ops n).
Proof. intros s a s' H E. cbv [look] in E. cbn [lookahead str_ops] in E. inversion E; subst. exact H. Qed.
Lemma fueled_tl fuel (s : sc strin) : fueled fuel s -> fueled fuel (set_in (skip1 str_ops (sc_in s)) s).
Proof.
  unfold fueled. cbn [sc_in set_in upd skip1 str_ops si_chars]. destruct (si_chars (sc_in s)); cbn [tl length]; lia.
Qed.
Lemma keeps_skip_blank fuel : keeps fuel (skip_blank str_ops).
Proof. intros s a s' H E. cbv [skip_blank in_skip adv_mark modify bind] in E. inversion E; subst. apply (fueled_tl _ _ H). Qed.
Lemma keeps_skip_nl fuel : keeps fuel (skip_nl str_ops).
Proof. intros s a s' H E. cbv [skip_nl in_skip modify bind] in E. inversion E; subst. apply (fueled_tl _ _ H). Qed.
Lemma keeps_bind fuel {A B} (m : @M strin A) (f : A -> @M strin B) : keeps fuel m -> (forall a, keeps fuel (f a)) -> keeps fuel (bind m f).
Proof.
  intros Hm Hf s b s' H E. unfold bind in E. destruct (m s) as [[a s1]| | |] eqn:E1; try discriminate.
  eapply Hf; [eapply Hm; eauto|exact E].
Qed.
Lemma keeps_ret fuel {A} (a : A) : keeps fuel (@ret strin A a).
Proof. intros s a' s' H E. inversion E; subst. exact H. Qed.
Lemma keeps_skip_linebreak fuel : keeps fuel (skip_linebreak str_ops).
Proof.
  unfold skip_linebreak. apply keeps_bind.
  - intros s a s' H E. unfold next_2_are, assert_buflen, bind in E. destruct (Nat.ltb _ _); [discriminate|].
    cbv [peek peekn ret] in E. cbn [peek_nth str_ops] in E. inversion E; subst. exact H.
  - intros crlf. destruct crlf.
    + apply keeps_bind; [apply keeps_skip_blank|intros _; apply keeps_skip_nl].
    + apply keeps_bind.
      * intros s a s' H E. cbv [peek peekn] in E. cbn [peek_nth str_ops] in E. inversion E; subst. exact H.
      * intros c. destruct (is_break c); [apply keeps_skip_nl|apply keeps_ret].
Qed.
Lemma keeps_state fuel {A} (m : @M strin A) : (forall s a s', m s = Ok (a, s') -> sc_in s' = sc_in s) -> keeps fuel m.
Proof. intros H s a s' Hf E. unfold fueled. rewrite (H _ _ _ E). exact Hf. Qed.
Lemma keeps_skip_while_non_breakz fuel : keeps fuel (in_skip_while_non_breakz str_ops fuel).
Proof.
  intros s a s' H E. unfold in_skip_while_non_breakz in E. rewrite in_skip_while_go in E.
  destruct (sc_in s) as [cs l] eqn:Ei. unfold fueled in H. rewrite Ei in H. cbn [si_chars] in H.
  erewrite while_go_str in E; [|reflexivity|exact Ei|exact H]. inversion E; subst. unfold fueled. cbn [stin sc_in set_in upd si_chars].
  pose proof (lead_rest (fun c => negb (is_breakz c)) cs) as LR. apply (f_equal (@length N)) in LR. rewrite app_length in LR.
  unfold chr in *. lia.
Qed.

Lemma simp_syw_go fuel : forall f need, simp (fueled fuel) (syw_go fuel f need) (b_syw_go fuel f need).
Proof.
  induction f as [|f IH]; intros need.
  - intros s t R _. exact I.
  - eapply (simp_bind _ (fun _ => fueled fuel)).
    { apply simp_of_m. apply (m_refines_weaken _ _ _ _ (fun _ _ => I) sb_look_ch_refines). }
    2:{ intros sx ax sx' H E. eapply keeps_look_ch; eauto. }
    intros c. destruct (c =? 32).
    { eapply (simp_bind _ (fun _ => fueled fuel)); [apply simp_skip_blank|intros []; apply IH|].
      intros sx ax sx' H E. eapply keeps_skip_blank; eauto. }
    destruct ((c =? 10) || (c =? 13)).
    { eapply (simp_bind _ (fun _ s => fueled fuel s /\ looked 2 s)); [apply simp_look| |].
      2:{ intros sx ax sx' H E. split; [eapply keeps_look; eauto|]. cbv [look] in E. cbn [lookahead str_ops] in E. inversion E; subst.
          unfold looked. cbn [sc_in set_in upd si_look]. lia. }
      intros []. eapply (simp_bind _ (fun _ => fueled fuel)).
      { eapply simp_weaken; [|apply simp_skip_linebreak]. intros s [_ H]. exact H. }
      2:{ intros sx ax sx' [H _] E. eapply keeps_skip_linebreak; eauto. }
      intros []. eapply (simp_bind _ (fun _ => fueled fuel)).
      { apply simp_gets. intros s t [_ ->]. reflexivity. }
      2:{ intros sx ax sx' H E. inversion E; subst. exact H. }
      intros fl. eapply (simp_bind _ (fun _ => fueled fuel)); [| intros []; apply IH |].
      { destruct (fl =? 0); [|apply simp_ret]. apply simp_modify. intros s t [R ->]. split; [exact R|reflexivity]. }
      intros sx ax sx' H E. destruct (fl =? 0); inversion E; subst; exact H. }
    destruct (c =? 35).
    { eapply (simp_bind _ (fun _ => fueled fuel)); [apply simp_of_m; apply sb_skip_while_non_breakz_refines| |].
      2:{ intros sx ax sx' H E. eapply keeps_skip_while_non_breakz; eauto. }
      intros n. eapply (simp_bind _ (fun _ => fueled fuel)); [apply simp_adv_mark|intros []; apply IH|].
      intros sx ax sx' H E. inversion E; subst. exact H. }
    destruct need; [apply simp_mark_fail|apply simp_ret].
Qed.
Theorem simp_skip_yaml_whitespace fuel : simp (fueled fuel) (skip_yaml_whitespace str_ops fuel) (b_skip_yaml_whitespace fuel).
Proof. rewrite skip_yaml_whitespace_go. apply simp_syw_go. Qed.

(* the rule for computations that read the whole scanner state ([s <- get ;; ...]): the two states are RS-related, so
   every field other than the input is the same on both sides *)
Lemma simp_get_bind {B} P (f : sc strin -> @M strin B) (g : sc bstr -> @M bstr B) :
  (forall s0 t0, RS s0 t0 -> simp (fun s => P s /\ s = s0) (f s0) (g t0)) -> simp P (bind get f) (bind get g).
Proof. intros H s t R Hp. unfold bind, get. apply (H s t R s t R). split; [exact Hp|reflexivity]. Qed.
