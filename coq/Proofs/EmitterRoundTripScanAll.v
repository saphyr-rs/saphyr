(* C09 — the scanner model on "---" LF followed by a block text document without its final line feed. *)
From Coq Require Import List NArith ZArith Bool Arith Lia.
Import ListNotations.
Require Import Parser SBase SPrim SDir SScalar SFetch Pipe Drivers TokenGrammar FlowText BlockText ScanFlowProofs ScanBlockProofs EmitterRoundTripDefs EmitterRoundTripScan EmitterRoundTripHeader ScanSimpl.
Open Scope N_scope.
Open Scope mon_scope.

Lemma toks_le_brz n : bwf true n = true -> (length (tokens_of (blt n)) <= 2 * length (brz 0 n []) + 2)%nat.
Proof.
  intros H. pose proof (toks_le_text n true 0%nat H) as L.
  rewrite <- (app_nil_r (brender 0 n)), (brender_brz n true 0%nat [] H), brz_length in L. cbn [length] in L. lia.
Qed.

Theorem scan_block_doc n : bwf_root n = true -> nobi n = true -> (bdepth n <= 255)%nat ->
  exists toks, scan_str (doc_header ++ blast n) = (toks, SEnded) /\ map snd toks = wrap true false (tokens_of (blt n)).
Proof.
  intros Hroot _ Hdep. rewrite (blast_brz n Hroot).
  unfold bwf_root in Hroot. apply andb_prop in Hroot as [Hcoll Hwf].
  pose proof (proj1 (last_ok n true Hwf) Hcoll) as HC.
  unfold scan_str.
  destruct (brz_first 0%nat n [] (or_introl Hwf)) as (x & cs & Ex & Hx).
  assert (Hfo : first_ok x /\ (x =? 0) = false).
  { destruct Hx as [-> | Hx]; [repeat split; reflexivity | exact (wch_first_ok x Hx)]. }
  destruct Hfo as [Hfo Hnz].
  pose proof (toks_le_brz n Hwf) as Hlen. rewrite Ex in Hlen |- *.
  remember (2 * length (doc_header ++ x :: cs) + 10)%nat as F eqn:HF.
  assert (HlenT : length (doc_header ++ x :: cs) = (4 + length (x :: cs))%nat) by (rewrite app_length; reflexivity).
  destruct (header_scan F x cs ltac:(lia) Hfo Hnz) as (t0 & t1 & s1 & Ht0 & Ht1 & Hat1 & Hscan).
  rewrite <- Ex in Hat1.
  destruct (HC F 0%nat [] s1 [] (or_introl Hat1) ltac:(unfold top_lt; cbn; lia) ltac:(cbn [length]; lia)
              ltac:(unfold fuel_ok; rewrite Ex; lia))
    as (toks & s' & ext' & c0 & w & Hd & Hw & HFw & He & Hat' & _).
  rewrite app_nil_r in Hat'.
  destruct (last_word_end F s' c0 w _ Hat' Hw HFw) as (toks2 & Hm2 & Hend).
  cbn [repeat app] in He. rewrite (tokens_open n Hcoll), He in Hlen |- *.
  assert (Hl2 : length toks2 = S (S (S (length ext')))).
  { rewrite <- (map_length snd toks2), Hm2. lensg. lia. }
  lens Hlen. rewrite map_length in Hlen. cbn [length] in HlenT. unfold token in *.
  assert (Etot : exists f2, (4 * F + 20 = 2 + (length toks + f2) /\ length toks2 < f2)%nat).
  { exists (4 * F + 18 - length toks)%nat. lia. }
  destruct Etot as (f2 & -> & Hf2).
  rewrite Hscan, Hd, (Hend f2 _ Hf2).
  eexists. split; [reflexivity|].
  rewrite rev_app_distr. cbn [rev app]. rewrite rev_involutive. cbn [map]. rewrite !map_app. unfold token in *.
  rewrite Ht0, Ht1, Hm2. unfold wrap. cbn [flag app]. f_equal. f_equal. rewrite <- !app_assoc. f_equal. cbn [app]. f_equal.
  rewrite app_length, repeat_app, <- app_assoc. reflexivity.
Qed.
Print Assumptions scan_block_doc.
