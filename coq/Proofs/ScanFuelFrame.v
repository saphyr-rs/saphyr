(* C01, bounded work: frame lemmas for the character-level scanners.
   Every normal return of skip_to_next_token, skip_ws_to_eol, skip_yaml_whitespace, scan_directive, scan_tag,
   scan_anchor, scan_flow_scalar, scan_plain_scalar, scan_block_scalar (and of all their helpers) leaves the token
   queue, the token counter, the stream flags, the simple keys, the flow level and the implicit flow-mapping states
   unchanged and keeps the number of indent records that need a BlockEnd ([fkeeps], ScanFuelFrameDef.v).
   No precondition, any input back-end [ops], any fuel.
   [fkeeps] is a consequence of the skeleton relation [frame] of ScanFrame.v, where the scanners are walked once:
   each lemma here is [Fr_frames] applied to its namesake there. *)
From Coq Require Import NArith ZArith. (* bind N_scope and Z_scope to the lemmas' numeric arguments *)
Require Import Parser SBase SPrim SDir SScalar ScanFrame ScanFuelFrameDef.

Section Frame.
Context {I : Type} (ops : InputOps I).

Lemma nbrel_npend a b : nbrel a b -> npend (snd b) = npend (snd a).
Proof. intros [->| ->]; [reflexivity|apply npend_unroll_nb]. Qed.

(* [frame] fixes every field that [fkeeps] fixes, and more, except the indent stack, which it leaves alone or
   replaces by its [unroll_nb]: that drops only records that need no BlockEnd *)
Lemma frame_fkeeps (s s' : sc I) : frame s s' -> fkeeps s s'.
Proof.
  intros (Ks & Kf & Ki & Kt & Kp & Kb & Ke & _ & _ & _ & Kn). apply nbrel_npend in Kn.
  unfold fkeeps. repeat split; assumption.
Qed.

Lemma Fr_frames {A} (m : @M I A) : Fr m -> frames m.
Proof. intros H s a s' E. apply frame_fkeeps, (H s a s' E). Qed.

Lemma frames_get : @frames I _ get.
Proof. apply Fr_frames, Fr_get. Qed.

Lemma frames_look n : frames (look ops n).
Proof. apply Fr_frames, Fr_look. Qed.
Lemma frames_peek : frames (peek ops).
Proof. apply Fr_frames, Fr_peek. Qed.
Lemma frames_in_skip_n n : frames (in_skip_n ops n).
Proof. apply Fr_frames, Fr_in_skip_n. Qed.
Lemma frames_raw_read : frames (raw_read ops).
Proof. apply Fr_frames, Fr_raw_read. Qed.
Lemma frames_buf_is_empty : frames (buf_is_empty ops).
Proof. apply Fr_frames, Fr_buf_is_empty. Qed.
Lemma frames_assert_buflen n site : frames (assert_buflen ops n site).
Proof. apply Fr_frames, Fr_assert_buflen. Qed.

Lemma frames_mark : @frames I _ mark.
Proof. apply Fr_frames, Fr_mark. Qed.
Lemma frames_adv_mark n : @frames I _ (adv_mark n).
Proof. apply Fr_frames, Fr_adv_mark. Qed.
Lemma frames_set_lws b : @frames I _ (modify (set_lws b)).
Proof. apply Fr_frames, Fr_set_lws. Qed.
Lemma frames_allow_simple_key : @frames I _ allow_simple_key.
Proof. apply Fr_frames, Fr_allow_simple_key. Qed.
Lemma frames_flow_level : @frames I _ flow_level.
Proof. apply Fr_frames, Fr_flow_level. Qed.
Lemma frames_is_within_block : @frames I _ is_within_block.
Proof. apply Fr_frames, Fr_is_within_block. Qed.
Lemma frames_col : @frames I _ col.
Proof. apply Fr_frames, Fr_col. Qed.
Lemma frames_col_lt_indent : @frames I _ col_lt_indent.
Proof. apply Fr_frames, Fr_col_lt_indent. Qed.
Lemma frames_skip_nl : frames (skip_nl ops).
Proof. apply Fr_frames, Fr_skip_nl. Qed.
Lemma frames_unroll_non_block_indents : @frames I _ unroll_non_block_indents.
Proof. apply Fr_frames, Fr_unroll_non_block_indents. Qed.

Lemma frames_look_ch : frames (look_ch ops).
Proof. apply Fr_frames, Fr_look_ch. Qed.
Lemma frames_next_char_is c : frames (next_char_is ops c).
Proof. apply Fr_frames, Fr_next_char_is. Qed.
Lemma frames_nth_char_is n c : frames (nth_char_is ops n c).
Proof. apply Fr_frames, Fr_nth_char_is. Qed.
Lemma frames_next_2_are a b : frames (next_2_are ops a b).
Proof. apply Fr_frames, Fr_next_2_are. Qed.
Lemma frames_next_3_are a b c : frames (next_3_are ops a b c).
Proof. apply Fr_frames, Fr_next_3_are. Qed.
Lemma frames_next_is_document_indicator : frames (next_is_document_indicator ops).
Proof. apply Fr_frames, Fr_next_is_document_indicator. Qed.
Lemma frames_next_is_document_start : frames (next_is_document_start ops).
Proof. apply Fr_frames, Fr_next_is_document_start. Qed.
Lemma frames_next_is_document_end : frames (next_is_document_end ops).
Proof. apply Fr_frames, Fr_next_is_document_end. Qed.
Lemma frames_next_is p : frames (next_is ops p).
Proof. apply Fr_frames, Fr_next_is. Qed.
Lemma frames_next_can_be_plain_scalar b : frames (next_can_be_plain_scalar ops b).
Proof. apply Fr_frames, Fr_next_can_be_plain_scalar. Qed.

Lemma frames_in_skip_ws_to_eol : forall fuel st tab ws n, frames (in_skip_ws_to_eol ops fuel st tab ws n).
Proof. intros. apply Fr_frames, Fr_in_skip_ws_to_eol. Qed.
Lemma frames_in_skip_while fuel p : frames (in_skip_while ops fuel p).
Proof. apply Fr_frames, Fr_in_skip_while. Qed.
Lemma frames_in_skip_while_non_breakz fuel : frames (in_skip_while_non_breakz ops fuel).
Proof. apply Fr_frames, Fr_in_skip_while_non_breakz. Qed.
Lemma frames_in_skip_while_blank fuel : frames (in_skip_while_blank ops fuel).
Proof. apply Fr_frames, Fr_in_skip_while_blank. Qed.
Lemma frames_in_fetch_while_alpha fuel acc : frames (in_fetch_while_alpha ops fuel acc).
Proof. apply Fr_frames, Fr_in_fetch_while_alpha. Qed.

Lemma frames_skip_blank : frames (skip_blank ops).
Proof. apply Fr_frames, Fr_skip_blank. Qed.
Lemma frames_skip_non_blank : frames (skip_non_blank ops).
Proof. apply Fr_frames, Fr_skip_non_blank. Qed.
Lemma frames_skip_n_non_blank n : frames (skip_n_non_blank ops n).
Proof. apply Fr_frames, Fr_skip_n_non_blank. Qed.
Lemma frames_skip_linebreak : frames (skip_linebreak ops).
Proof. apply Fr_frames, Fr_skip_linebreak. Qed.
Lemma frames_skip_break : frames (skip_break ops).
Proof. apply Fr_frames, Fr_skip_break. Qed.

Theorem frames_skip_ws_to_eol : forall F stb, frames (skip_ws_to_eol ops F stb).
Proof. intros. apply Fr_frames, Fr_skip_ws_to_eol. Qed.
Theorem frames_skip_to_next_token : forall F, frames (skip_to_next_token ops F).
Proof. intros. apply Fr_frames, Fr_skip_to_next_token. Qed.
Theorem frames_skip_yaml_whitespace : forall F, frames (skip_yaml_whitespace ops F).
Proof. intros. apply Fr_frames, Fr_skip_yaml_whitespace. Qed.

Lemma frames_scan_uri_escapes mk : frames (scan_uri_escapes ops mk).
Proof. apply Fr_frames, Fr_scan_uri_escapes. Qed.
Lemma frames_scan_tag_handle F d mk : frames (scan_tag_handle ops F d mk).
Proof. apply Fr_frames, Fr_scan_tag_handle. Qed.
Lemma frames_uri_loop F p mk acc : frames (uri_loop ops F p mk acc).
Proof. apply Fr_frames, Fr_uri_loop. Qed.
Lemma frames_scan_tag_prefix F mk : frames (scan_tag_prefix ops F mk).
Proof. apply Fr_frames, Fr_scan_tag_prefix. Qed.
Lemma frames_scan_verbatim_tag F mk : frames (scan_verbatim_tag ops F mk).
Proof. apply Fr_frames, Fr_scan_verbatim_tag. Qed.
Lemma frames_scan_tag_shorthand_suffix F h mk : frames (scan_tag_shorthand_suffix ops F h mk).
Proof. apply Fr_frames, Fr_scan_tag_shorthand_suffix. Qed.
Theorem frames_scan_tag : forall F, frames (scan_tag ops F).
Proof. intros. apply Fr_frames, Fr_scan_tag. Qed.
Theorem frames_scan_anchor : forall F alias, frames (scan_anchor ops F alias).
Proof. intros. apply Fr_frames, Fr_scan_anchor. Qed.

Lemma frames_scan_version_directive_number F mk : frames (scan_version_directive_number ops F mk).
Proof. apply Fr_frames, Fr_scan_version_directive_number. Qed.
Lemma frames_scan_version_directive_value F mk : frames (scan_version_directive_value ops F mk).
Proof. apply Fr_frames, Fr_scan_version_directive_value. Qed.
Lemma frames_scan_tag_directive_value F mk : frames (scan_tag_directive_value ops F mk).
Proof. apply Fr_frames, Fr_scan_tag_directive_value. Qed.
Lemma frames_scan_directive_name F : frames (scan_directive_name ops F).
Proof. apply Fr_frames, Fr_scan_directive_name. Qed.
Theorem frames_scan_directive : forall F, frames (scan_directive ops F).
Proof. intros. apply Fr_frames, Fr_scan_directive. Qed.

Lemma frames_read_hex : forall n i acc start, frames (read_hex ops n i acc start).
Proof. intros. apply Fr_frames, Fr_read_hex. Qed.
Lemma frames_resolve_escape start : frames (resolve_escape ops start).
Proof. apply Fr_frames, Fr_resolve_escape. Qed.
Lemma frames_consume_nonws : forall fuel single acc start, frames (consume_nonws ops fuel single acc start).
Proof. intros. apply Fr_frames, Fr_consume_nonws. Qed.
Lemma frames_flow_blanks : forall fuel lbl lb tb ws, frames (flow_blanks ops fuel lbl lb tb ws).
Proof. intros. apply Fr_frames, Fr_flow_blanks. Qed.
Theorem frames_scan_flow_scalar : forall F single, frames (scan_flow_scalar ops F single).
Proof. intros. apply Fr_frames, Fr_scan_flow_scalar. Qed.

Lemma frames_plain_chunk : forall fuel j acc, frames (plain_chunk ops fuel j acc).
Proof. intros. apply Fr_frames, Fr_plain_chunk. Qed.
Lemma frames_plain_blanks F : forall fuel indent start lb tb ws, frames (plain_blanks ops F fuel indent start lb tb ws).
Proof. intros. apply Fr_frames, Fr_plain_blanks. Qed.
Theorem frames_scan_plain_scalar : forall F, frames (scan_plain_scalar ops F).
Proof. intros. apply Fr_frames, Fr_scan_plain_scalar. Qed.

Lemma frames_scan_block_scalar_content_line F acc : frames (scan_block_scalar_content_line ops F acc).
Proof. apply Fr_frames, Fr_scan_block_scalar_content_line. Qed.
Lemma frames_skip_spaces_to : forall fuel indent cb, frames (skip_spaces_to ops fuel indent cb).
Proof. intros. apply Fr_frames, Fr_skip_spaces_to. Qed.
Lemma frames_skip_block_scalar_indent F : forall fuel indent breaks, frames (skip_block_scalar_indent ops F fuel indent breaks).
Proof. intros. apply Fr_frames, Fr_skip_block_scalar_indent. Qed.
Lemma frames_skip_first_line_indent F : forall fuel maxi breaks, frames (skip_first_line_indent ops F fuel maxi breaks).
Proof. intros. apply Fr_frames, Fr_skip_first_line_indent. Qed.
Theorem frames_scan_block_scalar : forall F literal, frames (scan_block_scalar ops F literal).
Proof. intros. apply Fr_frames, Fr_scan_block_scalar. Qed.

End Frame.

Print Assumptions frames_skip_to_next_token.
Print Assumptions frames_skip_ws_to_eol.
Print Assumptions frames_skip_yaml_whitespace.
Print Assumptions frames_scan_directive.
Print Assumptions frames_scan_tag.
Print Assumptions frames_scan_anchor.
Print Assumptions frames_scan_flow_scalar.
Print Assumptions frames_scan_plain_scalar.
Print Assumptions frames_scan_block_scalar.
