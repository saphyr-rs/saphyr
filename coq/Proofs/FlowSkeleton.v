(* The scanner model (Model/SFetch.v over the string input) at the tokens every flow-style text is made of, executed
   symbolically once for the two developments that follow a whole text through it: ScanFlowProofs.v (C03: one line, exact
   positions) and JsonScan*.v (C13: any insignificant whitespace, positions left open).
   States are in the normal form [nst]: everything flow context never touches is fixed (indent -1, no block indents,
   stream started, not ended).  ScanFlowProofs.mkst and JsonScanBase.mkst are the same term, so a lemma stated here applies
   to either by conversion.
   What differs between the two - the whitespace around a token - enters as a hypothesis: each lemma about a fetch takes the
   outcome of the skip_ws_to_eol (or skip_to_next_token) it contains and says what the fetch makes of it. *)
From Coq Require Import List NArith ZArith Bool Arith Lia.
Import ListNotations.
Require Import Parser SBase SPrim SDir SScalar SFetch Pipe TokenGrammar ScanSimpl.
Require DispatchTie.
Open Scope N_scope.
Open Scope mon_scope.

#[local] Arguments skip_ws_to_eol : simpl never.
#[local] Arguments insert_token : simpl never.
#[local] Arguments next_is_document_start : simpl never.
#[local] Arguments next_is_document_end : simpl never.

(* states in normal form *)
Definition nst (chars : list N) (look : nat) (mk : marker) (toks : list token) (adj : N) (ska : bool)
   (sks : list simple_key) (fl : N) (tp : N) (ta : bool) (lws : bool) (ifms : list ims) : sc strin :=
  {| sc_in := {| si_chars := chars; si_look := look |}; sc_mark := mk; sc_tokens := toks;
     sc_stream_start := true; sc_stream_end := false; sc_adjacent := adj; sc_ska := ska; sc_sks := sks;
     sc_indent := (-1)%Z; sc_indents := []; sc_flow_level := fl; sc_tokens_parsed := tp;
     sc_token_available := ta; sc_lws := lws; sc_ifms := ifms |}.
Definition nkey (p : bool) (tn : N) (m : marker) : simple_key :=
  {| sk_possible := p; sk_required := false; sk_token_number := tn; sk_mark := m |}.

Ltac rwf := repeat match goal with H : @eq bool _ _ |- _ => rewrite H end.
(* rewrite with an equation between states in normal form in a goal where the states are unfolded records *)
Ltac rw_nst E := let H := fresh "E" in pose proof E as H; unfold nst, nkey in H; rewrite H; clear H.

Lemma fl_pos_facts fl : 0 < fl -> (fl =? 0) = false /\ (0 <? fl) = true.
Proof. intros H. split; [apply N.eqb_neq; lia | apply N.ltb_lt; exact H]. Qed.
Lemma col_not_lt_indent n : (Z.of_N n <? -1)%Z = false.
Proof. apply Z.ltb_ge. lia. Qed.
Lemma col_not_neg n : (Z.of_N n <? 0)%Z = false.
Proof. apply Z.ltb_ge. lia. Qed.
Lemma indent_ne_col n : (-1 =? Z.of_N n)%Z = false.
Proof. apply Z.eqb_neq. lia. Qed.
Lemma app_ne {A} (q t : list A) : q <> [] -> q ++ t <> [].
Proof. destruct q; [congruence|discriminate]. Qed.

(* simple keys do not go stale in flow context, nor when none is possible *)
Lemma existsb_false {A} (f : A -> bool) l : (forall x, In x l -> f x = false) -> existsb f l = false.
Proof. intros H. induction l as [|x l IH]; cbn; [reflexivity|]. rewrite H by (left; reflexivity). apply IH. intros; apply H; right; assumption. Qed.
Lemma map_same {A} (f : A -> A) l : (forall x, In x l -> f x = x) -> map f l = l.
Proof. intros H. induction l as [|x l IH]; cbn; [reflexivity|]. rewrite H by (left; reflexivity). f_equal. apply IH. intros; apply H; right; assumption. Qed.

Definition calm (fl : N) (sks : list simple_key) : Prop := 0 < fl \/ Forall (fun k => sk_possible k = false) sks.

Lemma stale_calm (s : sc strin) : calm (sc_flow_level s) (sc_sks s) -> stale_simple_keys s = Ok (tt, s).
Proof.
  intros Hc. unfold stale_simple_keys. cbn.
  assert (Hst : forall k, In k (sc_sks s) -> sk_possible k && (sc_flow_level s =? 0) = false).
  { intros k Hk. destruct Hc as [Hfl | Hall].
    - destruct (fl_pos_facts _ Hfl) as [H0 _]. rewrite H0. apply andb_false_r.
    - rewrite Forall_forall in Hall. rewrite (Hall k Hk). reflexivity. }
  rewrite existsb_false by (intros x Hx; rewrite (Hst x Hx); reflexivity).
  rewrite map_same by (intros x Hx; rewrite (Hst x Hx); reflexivity). destruct s. reflexivity.
Qed.

(* fetch_next_token up to the dispatch on the first character *)
(* what is done once the end of the stream, the document markers and the directive are excluded *)
Definition disp (F : nat) (s : sc strin) : @M strin unit :=
  if (Z.of_N (m_col (sc_mark s)) <? sc_indent s)%Z then fail 102 (sc_mark s) else
  c <- peek str_ops ;; nc <- peekn str_ops 1 ;;
  DispatchTie.dispatch_tail str_ops F c nc s.
Arguments disp : simpl never.
(* symbolic execution ([cbn]) enters the if-chain also where the character is a variable *)
Arguments DispatchTie.dispatch_tail {I} ops F c nc s /.
Definition fnt_tail (F : nat) : @M strin unit := s <- get ;; disp F s.

Definition fnt_rest (F : nat) : @M strin unit :=
  s <- get ;;
  c0 <- peek str_ops ;;
  dstart <- (if m_col (sc_mark s) =? 0 then if c0 =? 37 then ret false else next_is_document_start str_ops else ret false) ;;
  dend <- (if (m_col (sc_mark s) =? 0) && negb (c0 =? 37) && negb dstart then next_is_document_end str_ops else ret false) ;;
  if (m_col (sc_mark s) =? 0) && (c0 =? 37) then fetch_directive str_ops F
  else if dstart then fetch_document_indicator str_ops TDocumentStart
  else if dend then
    fetch_document_indicator str_ops TDocumentEnd ;;;
    skip_ws_to_eol str_ops F SkipYes ;;;
    b <- next_is str_ops is_breakz ;;
    if b then ret tt else m <- mark ;; fail 101 m
  else disp F s.
Arguments fnt_rest : simpl never.

Lemma fnt_unfold F :
  fetch_next_token str_ops F =
  (look str_ops 1 ;;;
   s <- get ;;
   if negb (sc_stream_start s) then fetch_stream_start else
   skip_to_next_token str_ops F ;;;
   stale_simple_keys ;;;
   m <- mark ;;
   unroll_indent (Z.of_N (m_col m)) ;;;
   look str_ops 4 ;;;
   z <- next_is str_ops is_z ;;
   if z then fetch_stream_end else fnt_rest F).
Proof. exact (DispatchTie.fetch_next_token_shape str_ops F). Qed.

(* the first characters of a token that is not a document marker or a directive *)
Definition nodoc (cs : list N) : Prop :=
  (nth 0 cs 0 =? 37) = false /\ (nth 0 cs 0 =? 46) = false /\ ((nth 0 cs 0 =? 45) && (nth 1 cs 0 =? 45)) = false.

Lemma next_doc_start_no (s : sc strin) : (4 <= si_look (sc_in s))%nat ->
  ((nth 0 (si_chars (sc_in s)) 0 =? 45) && (nth 1 (si_chars (sc_in s)) 0 =? 45)) = false ->
  next_is_document_start str_ops s = Ok (false, s).
Proof.
  intros Hl H. unfold next_is_document_start, next_3_are, assert_buflen. destruct s as [[cs l] mk]. cbn in *.
  destruct l as [|[|[|[|l]]]]; try lia. cbn. unfold chr in *.
  destruct (nth 0 cs 0 =? 45); cbn in *; [rewrite H|]; reflexivity.
Qed.
Lemma next_doc_end_no (s : sc strin) : (4 <= si_look (sc_in s))%nat ->
  (nth 0 (si_chars (sc_in s)) 0 =? 46) = false ->
  next_is_document_end str_ops s = Ok (false, s).
Proof.
  intros Hl H. unfold next_is_document_end, next_3_are, assert_buflen. destruct s as [[cs l] mk]. cbn in *.
  destruct l as [|[|[|[|l]]]]; try lia. cbn. unfold chr in *. rewrite H. reflexivity.
Qed.

(* away from column 0, or in front of a token that does not begin like a document marker or a directive *)
Lemma fnt_rest_tail F cs l mk q adj ska sks fl tp ta lws ifms :
  (m_col mk =? 0) = false \/ (nodoc cs /\ (4 <= l)%nat) ->
  fnt_rest F (nst cs l mk q adj ska sks fl tp ta lws ifms) = fnt_tail F (nst cs l mk q adj ska sks fl tp ta lws ifms).
Proof.
  intros [Hcol | ((H37 & H46 & H45) & Hl)]; unfold fnt_rest, nst; cbn; unfold chr in *.
  - rewrite Hcol. reflexivity.
  - rewrite H37. destruct (m_col mk =? 0); cbn; [|reflexivity].
    rewrite next_doc_start_no by (cbn; assumption). cbn. rewrite next_doc_end_no by (cbn; assumption). reflexivity.
Qed.

Lemma max4 l : (4 <= Nat.max l 4)%nat.
Proof. lia. Qed.

(* the whitespace in front of the token is given by the outcome of skip_to_next_token *)
Lemma fnt_skip F cs l mk q adj ska sks fl tp ta lws ifms cs1 l1 mk1 ska1 lws1 :
  skip_to_next_token str_ops F (nst cs (Nat.max l 1) mk q adj ska sks fl tp ta lws ifms)
  = Ok (tt, nst cs1 l1 mk1 q adj ska1 sks fl tp ta lws1 ifms) ->
  calm fl sks -> is_z (nth 0 cs1 0) = false -> (m_col mk1 =? 0) = false \/ nodoc cs1 ->
  fetch_next_token str_ops F (nst cs l mk q adj ska sks fl tp ta lws ifms)
  = fnt_tail F (nst cs1 (Nat.max l1 4) mk1 q adj ska1 sks fl tp ta lws1 ifms).
Proof.
  intros E Hcalm Hz Hcol. rewrite fnt_unfold. unfold nst at 1. cbn. rw_nst E. cbn.
  rw_nst (stale_calm (nst cs1 l1 mk1 q adj ska1 sks fl tp ta lws1 ifms) Hcalm). cbn.
  destruct (0 <? fl); cbn; rewrite ?col_not_lt_indent; cbn; unfold chr in *; rewrite Hz; cbn;
    apply (fnt_rest_tail F cs1 (Nat.max l1 4) mk1 q adj ska1 sks fl tp ta lws1 ifms);
    (destruct Hcol as [Hcol | Hnd]; [left; exact Hcol | right; split; [exact Hnd | apply max4]]).
Qed.

(* the dispatch *)
Definition open_char (seq : bool) : N := if seq then 91 else 123.
Definition close_char (seq : bool) : N := if seq then 93 else 125.
Definition open_tok (seq : bool) : tok := if seq then TFlowSequenceStart else TFlowMappingStart.
Definition close_tok (seq : bool) : tok := if seq then TFlowSequenceEnd else TFlowMappingEnd.
Definition open_ims (seq : bool) : ims := if seq then ImPossible else ImMapping.

Section Dispatch.
Variables (F : nat) (cs : list N) (l : nat) (mk : marker) (q : list token) (adj : N) (ska : bool) (sks : list simple_key)
          (fl tp : N) (ta lws : bool) (ifms : list ims).
Let st (chars : list N) := nst chars l mk q adj ska sks fl tp ta lws ifms.
Ltac go := unfold fnt_tail, disp, st, nst; cbn; rewrite col_not_lt_indent; cbn.

Lemma tail_open seq : fnt_tail F (st (open_char seq :: cs)) = fetch_flow_collection_start str_ops F seq (st (open_char seq :: cs)).
Proof. destruct seq; go; reflexivity. Qed.
Lemma tail_close seq : fnt_tail F (st (close_char seq :: cs)) = fetch_flow_collection_end str_ops F seq (st (close_char seq :: cs)).
Proof. destruct seq; go; reflexivity. Qed.
Lemma tail_comma : fnt_tail F (st (44 :: cs)) = fetch_flow_entry str_ops F (st (44 :: cs)).
Proof. go. reflexivity. Qed.
(* ':' in front of a blank, or directly behind a quoted key (sc_adjacent) *)
Lemma tail_colon : 0 < fl -> is_blank_or_breakz (nth 0 cs 0) = true \/ adj = m_index mk ->
  fnt_tail F (st (58 :: cs)) = fetch_value str_ops F (st (58 :: cs)).
Proof.
  intros Hfl H. destruct (fl_pos_facts fl Hfl) as [_ Hf1]. go. unfold chr in *.
  destruct (is_blank_or_breakz (nth 0 cs 0)) eqn:Eb; cbn; [reflexivity|].
  destruct H as [H | ->]; [discriminate|]. rewrite Hf1, N.eqb_refl, orb_true_r. cbn.
  unfold fetch_flow_value. cbn. rewrite N.eqb_refl. reflexivity.
Qed.
End Dispatch.

(* '[' '{' ']' '}' ',' : the blanks behind the indicator are given by the outcome of skip_ws_to_eol *)
(* the FlowMappingEnd token that ends an implicit single pair *)
Definition fme (top : ims) (m : marker) : list token :=
  match top with ImInside => @cons token (span_empty m, TFlowMappingEnd) [] | _ => [] end.
Definition after_pair (top : ims) : ims :=
  match top with ImInside | ImInsideExplicitKey => ImPossible | t => t end.
(* the state on top of the implicit-mapping stack while the entries of a '[' (seq) / '{' are read *)
Definition top_ok (seq : bool) (top : ims) : Prop :=
  if seq then top = ImPossible \/ top = ImInside else top = ImMapping.

Section Indicators.
Variables (F : nat) (l : nat) (mk : marker) (q : list token) (adj tp : N) (ta : bool).

Lemma open_step (seq : bool) b cs (ska : bool) hd tls fl lws ifms tw cs' l' mk' :
  (fl =? 255) = false ->
  let sks' := nkey false 0 mk0 :: (if ska then nkey true (tp + N.of_nat (length q)) mk else hd) :: tls in
  skip_ws_to_eol str_ops F SkipYes (nst cs l (adv 1 mk) q adj true sks' (fl + 1) tp ta false (open_ims seq :: ifms))
  = Ok (tw, nst cs' l' mk' q adj true sks' (fl + 1) tp ta false (open_ims seq :: ifms)) ->
  fetch_flow_collection_start str_ops F seq (nst (b :: cs) l mk q adj ska (hd :: tls) fl tp ta lws ifms)
  = Ok (tt, nst cs' l' mk' (q ++ [(spn mk mk', open_tok seq)]) adj true sks' (fl + 1) tp ta false (open_ims seq :: ifms)).
Proof.
  intros H255 sks' E. subst sks'. unfold fetch_flow_collection_start, nst. destruct ska; cbv iota in E; cbn.
  - rewrite indent_ne_col, andb_false_r. cbn. rewrite andb_false_r. cbn. unfold FLOW_LEVEL_MAX. rewrite H255. cbn.
    fold (open_ims seq). rw_nst E. reflexivity.
  - rewrite andb_false_r. cbn. unfold FLOW_LEVEL_MAX. rewrite H255. cbn. fold (open_ims seq). rw_nst E. reflexivity.
Qed.

(* ']' / '}': the closer matches the level it closes (check_flow_closer, /repo 88700d3) *)
Lemma close_step (seq : bool) b cs ska p tn km hd2 tls fl lws top ifr tw cs' l' mk' :
  top_ok seq top ->
  let q' := q ++ (if seq then fme top mk else []) in
  skip_ws_to_eol str_ops F SkipYes (nst cs l (adv 1 mk) q' adj false (hd2 :: tls) fl tp ta false ifr)
  = Ok (tw, nst cs' l' mk' q' adj false (hd2 :: tls) fl tp ta false ifr) ->
  fetch_flow_collection_end str_ops F seq (nst (b :: cs) l mk q adj ska (nkey p tn km :: hd2 :: tls) (fl + 1) tp ta lws (top :: ifr))
  = Ok (tt, nst cs' l' mk' (q' ++ [(spn mk mk', close_tok seq)]) (if 0 <? fl then m_index mk' else adj) false (hd2 :: tls) fl tp ta false ifr).
Proof.
  intros Htop q' E. subst q'. assert (Hfl : (0 <? fl + 1) = true) by (apply N.ltb_lt; lia).
  unfold fetch_flow_collection_end, check_flow_closer, nst, nkey.
  destruct seq; cbn in Htop.
  - destruct Htop as [-> | ->]; cbn [fme] in *; rewrite ?app_nil_r in *; cbn; rewrite andb_false_r; cbn; rewrite Hfl; cbn; rewrite N.add_sub.
    + rw_nst E. cbn. destruct (0 <? fl); reflexivity.
    + rw_nst E. cbn. destruct (0 <? fl); reflexivity.
  - subst top. rewrite app_nil_r in *. cbn. rewrite andb_false_r. cbn. rewrite Hfl. cbn. rewrite N.add_sub.
    rw_nst E. cbn. destruct (0 <? fl); reflexivity.
Qed.

Lemma comma_step cs ska p tn km tls fl lws top ifr tw cs' l' mk' :
  skip_ws_to_eol str_ops F SkipYes (nst cs l (adv 1 mk) (q ++ fme top mk) adj true (nkey false tn km :: tls) fl tp ta false (after_pair top :: ifr))
  = Ok (tw, nst cs' l' mk' (q ++ fme top mk) adj true (nkey false tn km :: tls) fl tp ta false (after_pair top :: ifr)) ->
  fetch_flow_entry str_ops F (nst (44 :: cs) l mk q adj ska (nkey p tn km :: tls) fl tp ta lws (top :: ifr))
  = Ok (tt, nst cs' l' mk' ((q ++ fme top mk) ++ [(spn mk mk', TFlowEntry)]) adj true (nkey false tn km :: tls) fl tp ta false (after_pair top :: ifr)).
Proof.
  intros E. unfold fetch_flow_entry, nst, nkey. cbn. rewrite andb_false_r. cbn.
  destruct top; cbn in *; rewrite ?app_nil_r in *; rw_nst E; reflexivity.
Qed.
End Indicators.

(* ':' behind a simple key: Key (and FlowMappingStart) go in front of the key's token *)
Lemma insert_at_app {A} (x : A) q0 r : insert_at (length q0) x (q0 ++ r) = Some (q0 ++ x :: r).
Proof. induction q0 as [|y q0 IH]; cbn [length insert_at app]; [destruct r; reflexivity|]. rewrite IH. reflexivity. Qed.

Lemma insert_token_app (s : sc strin) tp t q0 r : sc_tokens s = q0 ++ r ->
  insert_token (tp + N.of_nat (length q0) - tp) t s = Ok (tt, set_tokens (q0 ++ t :: r) s).
Proof.
  intros H. unfold insert_token. replace (N.to_nat (tp + N.of_nat (length q0) - tp)) with (length q0) by lia.
  rewrite H, insert_at_app. reflexivity.
Qed.

(* fetch_value (/repo 597a354): only a ':' met in state Possible STARTS the implicit single-pair mapping; Possible and Inside
   both count as "inside an implicit mapping" for the checks on the key (one line, /repo 57aa316: at most 1024 characters) *)
Definition starts_ifm (top : ims) : bool := match top with ImPossible => true | _ => false end.
Definition is_ifm (top : ims) : bool := match top with ImPossible | ImInside => true | _ => false end.
Definition key_far (km mk : marker) : bool := (m_line km <? m_line mk) || (m_index km + SIMPLE_KEY_MAX <? m_index mk).

Section Value.
Variables (F : nat) (cs : list N) (l : nat) (mk : marker) (q0 : list token) (kt : token) (adj : N) (ska : bool) (km : marker)
          (tls : list simple_key) (fl tp : N) (ta lws : bool) (top : ims) (ifr : list ims).
Let s0 := nst (58 :: cs) l mk (q0 ++ [kt]) adj ska (nkey true (tp + N.of_nat (length q0)) km :: tls) fl tp ta lws (top :: ifr).

Lemma value_step : 0 < fl -> (is_ifm top = true -> key_far km mk = false) ->
  fetch_value str_ops F s0
  = Ok (tt, nst cs l (adv 1 mk)
              ((q0 ++ (if starts_ifm top then [(span_empty km, TFlowMappingStart)] else []) ++ [(span_empty km, TKey); kt])
                ++ [(span_empty mk, TValue)])
              adj false (nkey false (tp + N.of_nat (length q0)) km :: tls) fl tp ta false
              ((if starts_ifm top then ImInside else top) :: ifr)).
Proof.
  intros Hfl Hk. destruct (fl_pos_facts fl Hfl) as [Hf0 Hf1]. unfold key_far in Hk.
  assert (Hlt : (tp + N.of_nat (length q0) <? tp) = false) by (apply N.ltb_ge; lia).
  unfold s0, fetch_value, nst, nkey.
  destruct top; cbn in Hk; cbn; rewrite Hf0; cbn; rewrite Hlt; cbn;
    (erewrite insert_token_app; [| reflexivity]); cbn; rewrite ?Hk by reflexivity; cbn;
    try (erewrite insert_token_app; [| reflexivity]); cbn; rewrite ?Hf1, ?Hf0; cbn; rewrite ?Hf1, ?Hf0; cbn; reflexivity.
Qed.

(* the key of a single pair is too far back: an error at the ':' *)
Lemma value_long : 0 < fl -> is_ifm top = true -> key_far km mk = true -> fetch_value str_ops F s0 = Err 98 mk.
Proof.
  intros Hfl Hi Hk. destruct (fl_pos_facts fl Hfl) as [Hf0 Hf1]. unfold key_far in Hk.
  assert (Hlt : (tp + N.of_nat (length q0) <? tp) = false) by (apply N.ltb_ge; lia).
  unfold s0, fetch_value, nst, nkey.
  destruct top; try discriminate; cbn; rewrite Hf0; cbn; rewrite Hlt; cbn;
    (erewrite insert_token_app; [| reflexivity]); cbn; rewrite Hk; cbn; reflexivity.
Qed.
End Value.

(* handing out the queued tokens *)
Lemma scan_all_S F fuel s acc :
  scan_all str_ops F (S fuel) s acc =
  match next_token str_ops F s with
  | Ok (Some t, s') => scan_all str_ops F fuel s' (t :: acc)
  | Ok (None, _) => (rev acc, SEnded)
  | Err e m => (rev acc, SError e m)
  | Panic n => (rev acc, SPanic n)
  | OutOfFuel => (rev acc, SFuel)
  end.
Proof. reflexivity. Qed.

Lemma next_token_fmt F (s s' : sc strin) :
  sc_stream_end s = false -> sc_token_available s = false ->
  fetch_more_tokens str_ops F F s = Ok (tt, s') ->
  sc_stream_end s' = false -> sc_token_available s' = true ->
  next_token str_ops F s = next_token str_ops F s'.
Proof.
  intros H1 H2 H3 H4 H5. unfold next_token. cbn. rewrite H1, H4. cbn. rewrite H2, H5. cbn. rewrite H3. reflexivity.
Qed.

(* no simple key is possible any more: what is queued is handed out as it is *)
Definition idle (s : sc strin) : Prop := Forall (fun k => sk_possible k = false) (sc_sks s).

Lemma fmt_idle F fuel (s : sc strin) : sc_tokens s <> [] -> idle s ->
  fetch_more_tokens str_ops F (S fuel) s = Ok (tt, set_ta true s).
Proof.
  intros Hq Hi. unfold fetch_more_tokens. cbn. destruct (sc_tokens s) eqn:Eq; [congruence|]. cbn.
  rewrite stale_calm by (right; exact Hi). cbn.
  rewrite existsb_false; [destruct s; cbn in Eq; subst; reflexivity|].
  intros k Hk. unfold idle in Hi. rewrite Forall_forall in Hi. rewrite (Hi k Hk). reflexivity.
Qed.

Lemma fmt_empty F fuel (s : sc strin) : sc_tokens s = [] ->
  fetch_more_tokens str_ops F (S fuel) s = (fetch_next_token str_ops F ;;; fetch_more_tokens str_ops F fuel) s.
Proof. intros Hq. unfold fetch_more_tokens. fold (fetch_more_tokens str_ops F). cbn. rewrite Hq. reflexivity. Qed.

Lemma idle_next F (s : sc strin) t r : (1 <= F)%nat -> snd t <> TStreamEnd ->
  sc_stream_end s = false -> sc_tokens s = t :: r -> idle s ->
  next_token str_ops F s = Ok (Some t, set_tp (sc_tokens_parsed s + 1) (set_ta false (set_tokens r s))).
Proof.
  intros HF Ht Hse Hq Hi. destruct F as [|F]; [lia|].
  destruct s as [inp mk toks ss se adj ska sks ind inds fl tp ta lws ifms]. cbn in Hse, Hq. subst se toks.
  unfold next_token. cbn. destruct ta; cbn.
  - destruct t as [sp k]. cbn [snd] in Ht. destruct k; try congruence; reflexivity.
  - rewrite fmt_idle by (try exact Hi; discriminate). cbn.
    destruct t as [sp k]. cbn [snd] in Ht. destruct k; try congruence; reflexivity.
Qed.

Lemma drain F ts : forall (s : sc strin) r acc fuel,
  (1 <= F)%nat -> Forall (fun t => snd t <> TStreamEnd) ts -> sc_stream_end s = false -> sc_tokens s = ts ++ r -> idle s ->
  scan_all str_ops F (length ts + fuel) s acc
  = scan_all str_ops F fuel
      (set_tp (sc_tokens_parsed s + N.of_nat (length ts))
         (set_ta (match ts with [] => sc_token_available s | _ => false end) (set_tokens r s))) (rev ts ++ acc).
Proof.
  induction ts as [|t ts IH]; intros s r acc fuel HF Hts Hse Hq Hi.
  - cbn [length plus app rev N.of_nat] in *. rewrite N.add_0_r. destruct s. cbn in Hq. subst. reflexivity.
  - inversion Hts as [|? ? Ht Hts']; subst.
    cbn [length plus app] in *. rewrite scan_all_S, (idle_next F s t (ts ++ r)) by assumption. cbv beta iota.
    etransitivity; [apply (IH _ r (t :: acc) fuel HF Hts'); [exact Hse | reflexivity | exact Hi]|].
    cbn [rev]. rewrite <- app_assoc. cbn [app]. destruct s. cbn.
    replace (sc_tokens_parsed + 1 + N.of_nat (length ts)) with (sc_tokens_parsed + N.of_nat (S (length ts))) by lia.
    destruct ts; reflexivity.
Qed.

Lemma end_A F (s : sc strin) sp acc fuel : (1 <= F)%nat ->
  sc_stream_end s = false -> sc_tokens s = [(sp, TStreamEnd)] -> idle s ->
  scan_all str_ops F (S (S fuel)) s acc = (rev ((sp, TStreamEnd) :: acc), SEnded).
Proof.
  intros HF Hse Hq Hi. destruct F as [|F]; [lia|].
  destruct s as [inp mk toks ss se adj ska sks ind inds fl tp ta lws ifms]. cbn in Hse, Hq. subst se toks.
  rewrite scan_all_S. unfold next_token. cbn. destruct ta; cbn.
  - rewrite scan_all_S. unfold next_token. cbn. reflexivity.
  - rewrite fmt_idle by (try exact Hi; discriminate). cbn. rewrite scan_all_S. unfold next_token. cbn. reflexivity.
Qed.

(* the end of the document: the root's simple key, StreamEnd *)
Definition m0 : marker := {| m_index := 0; m_line := 1; m_col := 0 |}.

Lemma first_token F (chars : list N) : (2 <= F)%nat ->
  next_token str_ops F (init_sc {| si_chars := chars; si_look := 0 |})
  = Ok (Some (span_empty m0, TStreamStart), nst chars 1 m0 [] 0 true [nkey false 0 mk0] 0 1 false true []).
Proof. intros HF. destruct F as [|[|F]]; [lia|lia|]. reflexivity. Qed.

(* the root's simple key goes stale when the text has moved on to another line or beyond the simple-key limit *)
Lemma stale_root cs l mk q adj ska p km tp ta lws :
  exists p', stale_simple_keys (nst cs l mk q adj ska [nkey p 1 km] 0 tp ta lws [])
             = Ok (tt, nst cs l mk q adj ska [nkey p' 1 km] 0 tp ta lws []) /\ (p = false -> p' = false).
Proof.
  unfold stale_simple_keys, nst, nkey. cbn. rewrite !andb_false_r. cbn.
  destruct p; cbn.
  - destruct ((m_line km <? m_line mk) || (m_index km + SIMPLE_KEY_MAX <? m_index mk)); eexists; split; try reflexivity; discriminate.
  - exists false. split; reflexivity.
Qed.

(* what is left of the text is skipped by skip_to_next_token: StreamEnd *)
Lemma fnt_end F w l mk q adj ska p km tp lws l1 mk1 ska1 lws1 :
  skip_to_next_token str_ops F (nst w (Nat.max l 1) mk q adj ska [nkey p 1 km] 0 tp false lws [])
  = Ok (tt, nst [] l1 mk1 q adj ska1 [nkey p 1 km] 0 tp false lws1 []) ->
  exists mk',
    fetch_next_token str_ops F (nst w l mk q adj ska [nkey p 1 km] 0 tp false lws [])
    = Ok (tt, nst [] (Nat.max l1 4) mk' (q ++ [(span_empty mk', TStreamEnd)]) adj false [nkey false 1 km] 0 tp false lws1 []).
Proof.
  intros E1. destruct (stale_root [] l1 mk1 q adj ska1 p km tp false lws1) as (p' & E2 & _).
  exists (if m_col mk1 =? 0 then mk1 else {| m_index := m_index mk1; m_line := m_line mk1 + 1; m_col := 0 |}).
  rewrite fnt_unfold. unfold nst at 1. unfold nkey. cbn. rw_nst E1. cbn. rw_nst E2. cbn. rewrite col_not_lt_indent. cbn.
  unfold fetch_stream_end. cbn. rewrite ?andb_false_r. cbn. destruct (m_col mk1 =? 0); reflexivity.
Qed.

Lemma end_B F w l mk adj ska km tp lws acc fuel l1 mk1 ska1 lws1 : (2 <= F)%nat ->
  skip_to_next_token str_ops F (nst w (Nat.max l 1) mk [] adj ska [nkey false 1 km] 0 tp false lws [])
  = Ok (tt, nst [] l1 mk1 [] adj ska1 [nkey false 1 km] 0 tp false lws1 []) ->
  exists sp, scan_all str_ops F (S (S fuel)) (nst w l mk [] adj ska [nkey false 1 km] 0 tp false lws []) acc
             = (rev ((sp, TStreamEnd) :: acc), SEnded).
Proof.
  intros HF Esk. destruct (fnt_end F w l mk [] adj ska false km tp lws l1 mk1 ska1 lws1 Esk) as (mk5 & E).
  exists (span_empty mk5). destruct F as [|[|F]]; [lia|lia|].
  rewrite scan_all_S. unfold next_token at 1. unfold nst at 1. unfold nkey. cbn.
  rewrite fmt_empty by reflexivity. cbn. rw_nst E. cbn.
  rewrite fmt_idle by (try discriminate; repeat constructor). cbn.
  rewrite scan_all_S. unfold next_token. cbn. reflexivity.
Qed.

(* The scanner on a whole text, given that the first fetch_more_tokens brings in the tokens of the document in k fetches
   and leaves only text that skip_to_next_token skips: StreamStart, these tokens, StreamEnd.  The root's simple key is
   still pending then; the fetch it asks for brings in StreamEnd, unless the key has gone stale. *)
Lemma scan_doc_end F chars k toks w l mk adj ska km lws :
  (forall fuel, fetch_more_tokens str_ops F (k + fuel) (nst chars 1 m0 [] 0 true [nkey false 0 mk0] 0 1 false true [])
                = fetch_more_tokens str_ops F fuel (nst w l mk toks adj ska [nkey true 1 km] 0 1 false lws [])) ->
  (forall q p tp, exists l1 mk1 ska1 lws1,
     skip_to_next_token str_ops F (nst w (Nat.max l 1) mk q adj ska [nkey p 1 km] 0 tp false lws [])
     = Ok (tt, nst [] l1 mk1 q adj ska1 [nkey p 1 km] 0 tp false lws1 [])) ->
  toks <> [] -> Forall (fun t => snd t <> TStreamEnd) toks -> (k + 3 <= F)%nat -> (length toks <= 3 * k)%nat ->
  exists sp, scan_all str_ops F (4 * F + 20) (init_sc {| si_chars := chars; si_look := 0 |}) []
             = ((span_empty m0, TStreamStart) :: toks ++ [(sp, TStreamEnd)], SEnded).
Proof.
  intros Hk Hskip Hne Hse HF Hlen.
  set (S1 := nst chars 1 m0 [] 0 true [nkey false 0 mk0] 0 1 false true []) in *.
  assert (Hidle : forall s : sc strin, sc_sks s = [nkey false 1 km] -> idle s) by (intros s E; unfold idle; rewrite E; repeat constructor).
  (* the first fetch_more_tokens *)
  assert (Hfmt : exists s5, fetch_more_tokens str_ops F F S1 = Ok (tt, s5) /\
            ((exists l5 mk5 lws5 sp5, s5 = nst [] l5 mk5 (toks ++ [(sp5, TStreamEnd)]) adj false [nkey false 1 km] 0 1 true lws5 [])
             \/ s5 = nst w l mk toks adj ska [nkey false 1 km] 0 1 true lws [])).
  { replace (fetch_more_tokens str_ops F F S1) with (fetch_more_tokens str_ops F (k + S (S (F - k - 2))) S1) by (f_equal; lia).
    rewrite Hk. remember (S (F - k - 2)) as fuel' eqn:Ef.
    unfold fetch_more_tokens. fold (fetch_more_tokens str_ops F). unfold nst at 1. unfold nkey. cbn.
    destruct toks as [|t0 toks0]; [congruence|]. set (toks := t0 :: toks0) in *. cbn.
    destruct (stale_root w l mk toks adj ska true km 1 false lws) as (p' & Es & _). rw_nst Es. cbn.
    rewrite andb_true_r, orb_false_r. destruct p'; cbn.
    - destruct (Hskip toks true 1) as (l1 & mk1 & ska1 & lws1 & Esk).
      destruct (fnt_end F w l mk toks adj ska true km 1 lws l1 mk1 ska1 lws1 Esk) as (mk5 & E5). rw_nst E5. cbn.
      subst fuel'. rewrite fmt_idle by (try (apply Hidle; reflexivity); discriminate).
      eexists. split; [reflexivity|]. left. exists (Nat.max l1 4), mk5, lws1, (span_empty mk5). reflexivity.
    - eexists. split; [reflexivity|]. right. reflexivity. }
  destruct Hfmt as (s5 & E5 & Hs5).
  assert (Hnt : next_token str_ops F S1 = next_token str_ops F s5).
  { apply next_token_fmt; try reflexivity; try exact E5; destruct Hs5 as [(l5 & mk5 & lws5 & sp5 & ->) | ->]; reflexivity. }
  replace (4 * F + 20)%nat with (S (length toks + S (S (4 * F + 17 - length toks))))%nat by lia.
  rewrite scan_all_S, (first_token F chars) by lia. cbv beta iota. fold S1.
  destruct (length toks + S (S (4 * F + 17 - length toks)))%nat as [|fuel1] eqn:Efuel; [lia|].
  rewrite scan_all_S, Hnt, <- scan_all_S, <- Efuel.
  destruct Hs5 as [(l5 & mk5 & lws5 & sp5 & ->) | ->].
  - exists sp5.
    rewrite (drain F toks _ [(sp5, TStreamEnd)]) by (try assumption; try reflexivity; try lia; apply Hidle; reflexivity).
    rewrite end_A with (sp := sp5) by (try reflexivity; try lia; apply Hidle; reflexivity).
    f_equal. cbn [rev]. rewrite rev_app_distr, rev_involutive. reflexivity.
  - destruct (Hskip [] false (1 + N.of_nat (length toks))) as (l1 & mk1 & ska1 & lws1 & Esk).
    destruct (end_B F w l mk adj ska km (1 + N.of_nat (length toks)) lws (rev toks ++ [(span_empty m0, TStreamStart)]) (4 * F + 17 - length toks)
                l1 mk1 ska1 lws1 ltac:(lia) Esk) as (sp & Ee).
    exists sp.
    rewrite (drain F toks _ []) by (try assumption; try lia; try (apply Hidle; reflexivity); try reflexivity; cbn; rewrite app_nil_r; reflexivity).
    etransitivity; [|etransitivity; [exact Ee|]].
    + destruct toks; [congruence|reflexivity].
    + f_equal. cbn [rev]. rewrite rev_app_distr, rev_involutive. reflexivity.
Qed.

(* no token of a flow text is StreamEnd *)
Definition not_se (k : tok) : bool := match k with TStreamEnd => false | _ => true end.
Lemma forallb_map {A B} (p : B -> bool) (g : A -> B) l : forallb p (map g l) = forallb (fun x => p (g x)) l.
Proof. induction l as [|x l IH]; cbn; [reflexivity|]. rewrite IH. reflexivity. Qed.
Lemma forallb_flat_map {A B} (p : B -> bool) (g : A -> list B) l : forallb p (flat_map g l) = forallb (fun x => forallb p (g x)) l.
Proof. induction l as [|x l IH]; cbn [flat_map forallb]; [reflexivity|]. rewrite forallb_app, IH. reflexivity. Qed.
Lemma forallb_fsep (p : tok -> bool) l : p TFlowEntry = true -> forallb p (fsep l) = forallb (forallb p) l.
Proof.
  intros Hp. destruct l as [|x r]; cbn [fsep forallb]; [reflexivity|]. rewrite forallb_app, forallb_flat_map. cbn [forallb]. rewrite Hp. reflexivity.
Qed.
Lemma no_se_spanned (q : list token) L : map snd q = L -> forallb not_se L = true -> Forall (fun t => snd t <> TStreamEnd) q.
Proof.
  intros <- H. rewrite forallb_map in H. rewrite forallb_forall in H. apply Forall_forall. intros t Ht E.
  specialize (H t Ht). rewrite E in H. discriminate.
Qed.
