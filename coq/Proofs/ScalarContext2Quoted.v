(* C04 in document context, part 6: scan_flow_scalar on a presentation of the specification that is followed by a SIBLING
   LINE (white space, a line feed, then a line that starts at column 0 with a character that is neither a blank nor a break):
   [scan_flow_scalar_brk] (Proofs/ScalarContextQuoted.v) for this follower, with the input that is left -- the line feed that
   ends the scalar's last line, further white space, the sibling line. *)
From Coq Require Import List NArith ZArith Bool Arith Lia.
Import ListNotations.
Require Import Parser SBase SScalar FlowFold FlowScalarProofs PlainScalarProofs ScalarContextQuoted ScalarContext2PlainSib.
Open Scope N_scope.
Open Scope mon_scope.

Lemma sib_close ws x r : ws_only ws = true -> (nth 0 (ws ++ 10 :: x :: r) 0 =? 39) = false.
Proof.
  destruct ws as [|c ws]; [reflexivity|]. cbn [ws_only forallb app nth]. intros H. apply andb_prop in H as [Hc _].
  apply orb_prop in Hc as [Hc|Hc]; apply N.eqb_eq in Hc; subst c; reflexivity.
Qed.

Theorem scan_flow_scalar_sib :
  forall (F : nat) (single : bool) (n : nat) (first : list dq_item) (more : list (brk_layout * list dq_item))
         (ws : list N) (x : N) (r : list N) (s : sc strin),
    (if single then sq_layout_wf n first more else dq_layout_wf n first more) = true ->
    let src := if single then sq_render first more else dq_render first more in
    si_chars (sc_in s) = quote_of single :: src ++ quote_of single :: ws ++ 10 :: x :: r ->
    ws_only ws = true -> sib_head x ->
    (sc_indent s < Z.of_nat n)%Z ->
    (sc_indent s <= Z.of_N (m_col (sc_mark s)) + 1)%Z ->
    (2 * length (si_chars (sc_in s)) + 10 <= F)%nat ->
    exists sp s' ws2,
      scan_flow_scalar str_ops F single s = Ok ((sp, TScalar (style_of single) (dq_text first more)), s')
      /\ si_chars (sc_in s') = 10 :: ws2 ++ x :: r /\ ws_only ws2 = true /\ (length ws2 <= length ws)%nat.
Proof.
  intros F single n first more ws x r s Hwf src Hsrc Hws Hx Hn Hcol HF.
  destruct (sib_drop_leading x r Hx ws Hws) as (ws2 & Hws2 & Edrop & _).
  destruct (scan_flow_scalar_brk F single n first more (ws ++ 10 :: x :: r) s Hwf Hsrc
              ltac:(unfold brk_head; rewrite Edrop; right; reflexivity) (fun _ => sib_close ws x r Hws) Hn Hcol HF)
    as (sp & s' & E & _ & Hin).
  exists sp, s', ws2. rewrite <- Edrop. repeat split; try assumption.
  destruct (split_leading (ws ++ 10 :: x :: r)) as [Hs _]. apply (f_equal (@length N)) in Hs.
  rewrite Edrop, !app_length in Hs. cbn [length] in Hs. rewrite app_length in Hs. cbn [length] in Hs. lia.
Qed.
