(* C09 — the text the emitter writes for a SIMPLE tree (EmitterRoundTripDefs.v) is literally the document header line
   followed by the block text (Spec/BlockText.v) of [node_of c true doc] without its final line feed; that block-text node
   is a well-formed document of the block-text sub-language, nested at most 255 deep. *)
From Coq Require Import List NArith ZArith Bool Arith Lia.
Import ListNotations.
Require Import Resolver Loader Emitter EmitterProofs EmitterBlock EmitterTree BlockLayout ListKit.
Require Import Parser CharTraits TokenGrammar FlowText BlockText EmitterRoundTripDefs.
Open Scope N_scope.

Lemma simple_tree_parts doc : simple_tree doc = true ->
  is_collection doc = true /\ simple_node doc = true /\ (ndepth doc <= 255)%nat.
Proof. unfold simple_tree. rewrite !andb_true_iff, Nat.leb_le. tauto. Qed.

(* leaves *)
Lemma word_no_lf (s : str) : word_ok s = true -> contains_ch s 10 = false.
Proof.
  intros H. destruct (contains_ch s 10) eqn:E; [|reflexivity]. apply existsb_exists in E. destruct E as (a & Ha & E).
  apply N.eqb_eq in E. subst a. destruct s; [discriminate|].
  pose proof (proj1 (forallb_forall _ _) H _ Ha) as W. vm_compute in W. discriminate W.
Qed.

Lemma word_not_literal m L (s : str) : word_ok s = true -> is_literal_block m L s = false.
Proof. intros H. unfold is_literal_block. rewrite (word_no_lf s H), andb_false_r. reflexivity. Qed.

Lemma emit_string_word m L (s : str) : word_ok s = true -> need_quotes s = false -> emit_string m L s = s.
Proof. intros Hw Hq. unfold emit_string. rewrite (word_not_literal m L s Hw), Hq. reflexivity. Qed.

Lemma short_not_long_key (s : str) : need_quotes s = false -> key_short s = true -> is_long_key s = false.
Proof.
  intros Hq Hk. unfold is_long_key. destruct (utf8_len s <=? _); [reflexivity|]. rewrite Hq.
  unfold key_short, key_max in Hk. unfold str_len, emit_key_max. apply N.leb_le in Hk. apply N.ltb_ge. exact Hk.
Qed.

Lemma simple_leaf_not_coll n : simple_leaf n = true -> is_collection n = false.
Proof. destruct n; try reflexivity; discriminate. Qed.

Lemma simple_node_leaf n : is_collection n = false -> simple_node n = simple_leaf n.
Proof. destruct n; try reflexivity; discriminate. Qed.

Lemma simple_nonempty n : simple_node n = true -> nonempty_coll n = is_collection n.
Proof. destruct n as [| | | | |[|x r]|[|kv r]]; try reflexivity; discriminate. Qed.

Lemma node_of_leaf c inl n : is_collection n = false -> node_of c inl n = BW (leaf_text n).
Proof. destruct n; try reflexivity; discriminate. Qed.

Lemma complex_key_simple m L k : simple_key k = true -> complex_key m L k = false.
Proof.
  unfold simple_key. intros H. apply andb_true_iff in H. destruct H as [Hl Hs].
  destruct k as [|b|z|t|s|l|l]; try reflexivity; try discriminate.
  cbn [simple_leaf] in Hl. apply andb_true_iff in Hl. destruct Hl as [Hw Hq]. apply negb_true_iff in Hq.
  cbn [leaf_text] in Hs. cbn [complex_key].
  rewrite (word_not_literal m L s Hw), (short_not_long_key s Hq Hs), !andb_false_r. reflexivity.
Qed.

Lemma emit_leaf c m L k : simple_leaf k = true -> emit c m None L k = leaf_text k.
Proof.
  destruct k as [|b|z|t|s|l|l]; try reflexivity; try discriminate.
  cbn [simple_leaf]. intros H. apply andb_true_iff in H. destruct H as [Hw Hq]. apply negb_true_iff in Hq.
  cbn [emit scalar_prefix app leaf_text]. apply emit_string_word; assumption.
Qed.

Lemma leaf_word n : simple_leaf n = true -> word_ok (leaf_text n) = true.
Proof.
  destruct n as [|b|z|t|s|l|l]; try discriminate.
  - intros _. vm_compute. reflexivity.
  - intros _. destruct b; vm_compute; reflexivity.
  - cbn [simple_leaf leaf_text]. intros H. apply andb_true_iff in H. tauto.
  - cbn [simple_leaf leaf_text]. tauto.
  - cbn [simple_leaf leaf_text]. intros H. apply andb_true_iff in H. tauto.
Qed.

(* layout *)
(* the entries of a block collection (Spec/BlockLayout.v) with the line feed moved from the front of every further
   entry to the end of every entry: the elements of a collection of Spec/BlockText.v *)
Lemma join_entries_lf n (es : list str) : es <> [] ->
  join_entries n es ++ [10] = bjoin n (map (fun e => e ++ [10]) es).
Proof.
  destruct es as [|e es]; [congruence|]. intros _.
  rewrite join_entries_flat. cbn [map bjoin]. revert e. induction es as [|e2 es IH]; intros e; cbn [flat_map map].
  - rewrite !app_nil_r. reflexivity.
  - rewrite <- !app_assoc. cbn [app]. rewrite <- app_assoc, (app_assoc e2), IH, <- !app_assoc. reflexivity.
Qed.

Section Layout.
Variables c m : bool.

Lemma pair_text_simple level k x : simple_key k = true ->
  pair_text c m level k x = leaf_text k ++ [58] ++ emit c m (Some false) (level + 1) x.
Proof.
  intros Hk. unfold pair_text. rewrite (complex_key_simple m (level + 1) k Hk).
  unfold simple_key in Hk. apply andb_true_iff in Hk. destruct Hk as [Hl _].
  rewrite (emit_leaf c m (level + 1) k Hl). reflexivity.
Qed.

(* a non-empty collection behind "-" (b = true) or "key:" (b = false) of an entry at level L: what the emitter writes in
   front of it is the lead of its block-text node, and its entries stand at the column of level L + 1 *)
Lemma coll_lead b L x : (-1 <= L)%Z -> nonempty_coll x = true ->
  val_prefix c (Some b) (L + 1) false = lead (ind_n L) (node_of c b x)
  /\ child_col (ind_n L) (node_of c b x) = ind_n (L + 1).
Proof.
  intros HL Hn. rewrite (ind_n_succ L HL).
  assert (E : 10 :: indent (L + 1 + 1) = 10 :: spaces (ind_n L + 1 + 1)).
  { rewrite (indent_sp (L + 1)), (ind_n_succ L HL). unfold sp, spaces. do 2 f_equal. lia. }
  destruct x as [| | | | |l|l]; try discriminate Hn; cbn [node_of val_prefix lead child_col]; rewrite orb_false_r;
    destruct (b && c); (split; [first [reflexivity|exact E]|lia]).
Qed.

(* what is shown for every node, by induction: a collection emitted at level L is its block text at the column of that
   level, up to the final line feed *)
Definition coll_ok (n : node) : Prop :=
  forall L inl, (-1 <= L)%Z -> simple_node n = true -> nonempty_coll n = true ->
  emit c m None L n ++ [10] = brender (ind_n L) (node_of c inl n).

(* the text behind "-" (b = true) or "key:" (b = false) *)
Lemma child_ok x b L : (-1 <= L)%Z -> simple_node x = true -> coll_ok x ->
  emit c m (Some b) (L + 1) x ++ [10]
  = lead (ind_n L) (node_of c b x) ++ brender (child_col (ind_n L) (node_of c b x)) (node_of c b x).
Proof.
  intros HL Hs Hx. rewrite emit_mode, <- app_assoc. destruct (nonempty_coll x) eqn:En; cbn [negb].
  - destruct (coll_lead b L x HL En) as [-> ->]. rewrite (Hx (L + 1)%Z b ltac:(lia) Hs En). reflexivity.
  - pose proof En as Ec. rewrite (simple_nonempty x Hs) in Ec.
    rewrite (simple_node_leaf x Ec) in Hs. rewrite (emit_leaf c m (L + 1) x Hs), (node_of_leaf c b x Ec).
    cbn [val_prefix lead child_col brender]. rewrite orb_true_r. reflexivity.
Qed.

Theorem all_coll_ok n : coll_ok n.
Proof.
  induction n as [|b|z|t|s|l IH|l IH] using node_ind'; intros L inl HL Hs Hn; try discriminate Hn.
  - destruct l as [|x r]; [discriminate Hn|]. cbn [simple_node] in Hs. apply andb_true_iff in Hs as [_ Hs].
    rewrite emit_seq. cbn [val_prefix is_nil app]. rewrite items_join, join_entries_lf by (cbn [map]; discriminate).
    cbn [node_of brender]. rewrite !map_map. f_equal. apply map_ext_Forall.
    rewrite forallb_forall in Hs. rewrite Forall_forall in IH |- *. intros y Hy.
    cbn [app]. f_equal. apply child_ok; auto.
  - destruct l as [|kv r]; [discriminate Hn|]. cbn [simple_node] in Hs. apply andb_true_iff in Hs as [Hs _].
    apply andb_true_iff in Hs as [_ Hs].
    rewrite emit_map. cbn [val_prefix is_nil app]. rewrite pairs_join, join_entries_lf by (cbn [map]; discriminate).
    cbn [node_of brender]. rewrite !map_map. f_equal. apply map_ext_Forall.
    rewrite forallb_forall in Hs. rewrite Forall_forall in IH |- *. intros y Hy.
    specialize (Hs y Hy). apply andb_true_iff in Hs as [Hk Hv]. destruct (IH y Hy) as [_ Iv].
    rewrite (pair_text_simple L (fst y) (snd y) Hk). cbn [fst snd]. rewrite <- !app_assoc. cbn [app]. do 2 f_equal.
    apply child_ok; auto.
Qed.

End Layout.

(* 1. the emitted text *)
Theorem emit_simple_text : forall c m doc, simple_tree doc = true ->
  dump_doc c m doc = doc_header ++ blast (node_of c true doc).
Proof.
  intros c m doc H. destruct (simple_tree_parts doc H) as (Hc & Hs & _).
  rewrite <- (simple_nonempty doc Hs) in Hc.
  unfold dump_doc, emit_node, doc_header, blast, bdoc_text. f_equal.
  change 0%nat with (ind_n (-1)).
  rewrite <- (all_coll_ok c m doc (-1)%Z true ltac:(lia) Hs Hc). rewrite removelast_last. reflexivity.
Qed.

(* 2. well-formedness *)
Lemma place_ok_node_of (c inl : bool) : place_ok inl (if inl && c then None else Some 1%nat) = true.
Proof. destruct inl, c; reflexivity. Qed.

Lemma node_of_wf c n : forall inl, simple_node n = true -> bwf inl (node_of c inl n) = true.
Proof.
  induction n as [|b|z|t|s|l IH|l IH] using node_ind'; intros inl Hs;
    try (cbn [node_of bwf]; apply leaf_word; exact Hs).
  - cbn [simple_node] in Hs. apply andb_true_iff in Hs. destruct Hs as [Hne Hs].
    cbn [node_of bwf]. rewrite place_ok_node_of. cbn [andb].
    apply andb_true_iff. split; [destruct l; [discriminate|reflexivity]|].
    rewrite forallb_forall in Hs. rewrite Forall_forall in IH. apply forallb_map_true, Forall_forall.
    intros x Hx. apply IH; auto.
  - cbn [simple_node] in Hs. apply andb_true_iff in Hs. destruct Hs as [Hs _].
    apply andb_true_iff in Hs. destruct Hs as [Hne Hs].
    cbn [node_of bwf]. rewrite place_ok_node_of. cbn [andb].
    apply andb_true_iff. split; [destruct l; [discriminate|reflexivity]|].
    rewrite forallb_forall in Hs. rewrite Forall_forall in IH. apply forallb_map_true, Forall_forall.
    intros kv Hkv. specialize (Hs kv Hkv). apply andb_true_iff in Hs as [Hk Hv]. destruct (IH kv Hkv) as [_ Iv].
    unfold simple_key in Hk. apply andb_true_iff in Hk as [Hl Hshort].
    cbn [fst snd]. unfold key_ok. rewrite (leaf_word _ Hl), Hshort, (Iv false Hv). reflexivity.
Qed.

Theorem node_of_root_wf : forall c doc, simple_tree doc = true -> bwf_root (node_of c true doc) = true.
Proof.
  intros c doc H. destruct (simple_tree_parts doc H) as (Hc & Hs & _).
  unfold bwf_root. rewrite (node_of_wf c doc true Hs), andb_true_r.
  destruct doc; try discriminate; reflexivity.
Qed.

(* 3. depth *)
Lemma node_of_bdepth c n : forall inl, bdepth (node_of c inl n) = ndepth n.
Proof.
  induction n as [|b|z|t|s|l IH|l IH] using node_ind'; intros inl; try reflexivity.
  - cbn [node_of bdepth ndepth]. f_equal.
    induction IH as [|x r Hx Hr IHr]; [reflexivity|]. cbn [map fold_right]. rewrite (Hx true), IHr. reflexivity.
  - cbn [node_of bdepth ndepth]. f_equal.
    induction IH as [|[k x] r [_ Hx] Hr IHr]; [reflexivity|]. cbn [snd] in Hx.
    cbn [map fold_right snd]. rewrite (Hx false), IHr. reflexivity.
Qed.

Theorem node_of_depth : forall c doc, simple_tree doc = true -> (bdepth (node_of c true doc) <= 255)%nat.
Proof.
  intros c doc H. rewrite node_of_bdepth. apply (simple_tree_parts doc H).
Qed.

Print Assumptions emit_simple_text.
Print Assumptions node_of_root_wf.
Print Assumptions node_of_depth.
