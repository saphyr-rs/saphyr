(* C01, bounded work: the scanner model over the string input never exhausts its fuel when every loop is given
   fuel linear in the input length.  Calculus [fwp]: OutOfFuel is the ONE outcome that is forbidden; a value must
   satisfy the postcondition; an error or a panic ends the run and is not this proof's concern (panics are excluded
   by ScanSafeTop.v for the buffered input and by the correspondence run for the string input).
   The measure is the number of remaining characters [rl s]: every loop iteration of the scanner either consumes a
   character or ends the loop (the proofs show which), so a loop started with fuel > rl s cannot run dry. *)
From Coq Require Import List NArith ZArith Bool Arith Lia.
Import ListNotations.
Require Import Parser SBase SPrim SDir SScalar SFetch.
Local Open Scope nat_scope.

Arguments Nat.ltb : simpl never.
Arguments Nat.leb : simpl never.
Arguments Nat.eqb : simpl never.
Arguments Nat.sub : simpl never.
Arguments Nat.max : simpl never.

Notation fst_ := (sc strin).
Notation FM := (@M strin).

Definition frem (s : fst_) : list chr := si_chars (sc_in s).
Definition rl (s : fst_) : nat := length (frem s).
Definition fnth (s : fst_) (i : nat) : chr := nth i (frem s) 0%N.

Definition fwp {A} (m : FM A) (Q : A -> fst_ -> Prop) (s : fst_) : Prop :=
  match m s with
  | Ok (a, s') => Q a s'
  | OutOfFuel => False
  | _ => True
  end.

Lemma fwp_ret {A} (a : A) (Q : A -> fst_ -> Prop) s : Q a s -> fwp (ret a) Q s.
Proof. auto. Qed.
Lemma fwp_bind {A B} (m : FM A) (f : A -> FM B) (Q : B -> fst_ -> Prop) s :
  fwp m (fun a s' => fwp (f a) Q s') s -> fwp (bind m f) Q s.
Proof. unfold fwp, bind. destruct (m s) as [[a s']| | |]; auto. Qed.
Lemma fwp_mono {A} (m : FM A) (Q Q' : A -> fst_ -> Prop) s :
  fwp m Q s -> (forall a s', Q a s' -> Q' a s') -> fwp m Q' s.
Proof. unfold fwp. destruct (m s) as [[a s']| | |]; auto. Qed.
(* the model is a function: two facts about the same run hold together *)
Lemma fwp_and {A} (m : FM A) (P Q : A -> fst_ -> Prop) s : fwp m P s -> fwp m Q s -> fwp m (fun a s' => P a s' /\ Q a s') s.
Proof. unfold fwp. destruct (m s) as [[a s']| | |]; auto. Qed.
Lemma fwp_fail {A} site mk (Q : A -> fst_ -> Prop) s : fwp (@fail strin A site mk) Q s.
Proof. exact I. Qed.
Lemma fwp_panic {A} site (Q : A -> fst_ -> Prop) s : fwp (@panic strin A site) Q s.
Proof. exact I. Qed.
(* [oof] is acceptable only where it is unreachable *)
Lemma fwp_oof_absurd {A} (Q : A -> fst_ -> Prop) s : False -> fwp (@oof strin A) Q s.
Proof. tauto. Qed.
Lemma fwp_get (Q : fst_ -> fst_ -> Prop) s : Q s s -> fwp get Q s.
Proof. auto. Qed.
Lemma fwp_gets {A} (f : fst_ -> A) (Q : A -> fst_ -> Prop) s : Q (f s) s -> fwp (gets f) Q s.
Proof. auto. Qed.
Lemma fwp_put s0 (Q : unit -> fst_ -> Prop) s : Q tt s0 -> fwp (put s0) Q s.
Proof. auto. Qed.
Lemma fwp_modify f (Q : unit -> fst_ -> Prop) s : Q tt (f s) -> fwp (modify f) Q s.
Proof. auto. Qed.

(* case analysis on the test of a conditional program *)
Ltac dif := match goal with |- fwp (if ?b then _ else _) _ _ => destruct b end.
Ltac difE E := match goal with |- fwp (if ?b then _ else _) _ _ => destruct b eqn:E end.

(* input primitives of the string back-end *)
(* [look] bumps the counter to at least n; [si_look] never decreases *)
Definition lk (s : fst_) : nat := si_look (sc_in s).
Lemma fwp_look n (Q : unit -> fst_ -> Prop) s :
  (forall s', frem s' = frem s -> lk s' = Nat.max (lk s) n -> s' = set_in (sc_in s') s -> Q tt s') -> fwp (look str_ops n) Q s.
Proof. intros HQ. unfold fwp, look. cbn. apply HQ; reflexivity. Qed.
Lemma fwp_peekn n (Q : chr -> fst_ -> Prop) s : Q (fnth s n) s -> fwp (peekn str_ops n) Q s.
Proof. intros HQ. exact HQ. Qed.
Lemma fwp_peek (Q : chr -> fst_ -> Prop) s : Q (fnth s 0) s -> fwp (SPrim.peek str_ops) Q s.
Proof. intros HQ. exact HQ. Qed.
Lemma fwp_look_ch (Q : chr -> fst_ -> Prop) s :
  (forall s', frem s' = frem s -> lk s' = Nat.max (lk s) 1 -> s' = set_in (sc_in s') s -> Q (fnth s' 0) s') -> fwp (look_ch str_ops) Q s.
Proof. intros HQ. unfold look_ch. apply fwp_bind. apply fwp_look. intros s' H1 H2 H3. apply fwp_peek. apply HQ; assumption. Qed.
Lemma fwp_in_skip (Q : unit -> fst_ -> Prop) s :
  (forall s', frem s' = tl (frem s) -> lk s' = lk s -> s' = set_in (sc_in s') s -> Q tt s') -> fwp (in_skip str_ops) Q s.
Proof. intros HQ. unfold fwp, in_skip, modify. cbn. apply HQ; reflexivity. Qed.
Lemma fwp_in_skip_n n (Q : unit -> fst_ -> Prop) s :
  (forall s', frem s' = skipn n (frem s) -> lk s' = lk s -> s' = set_in (sc_in s') s -> Q tt s') -> fwp (in_skip_n str_ops n) Q s.
Proof. intros HQ. unfold fwp, in_skip_n. cbn. apply HQ; reflexivity. Qed.
Lemma fwp_raw_read (Q : option chr -> fst_ -> Prop) s :
  match frem s with
  | [] => Q None s
  | c :: r => if is_breakz c then Q None s
              else forall s', frem s' = r -> lk s' = lk s -> s' = set_in (sc_in s') s -> Q (Some c) s'
  end -> fwp (raw_read str_ops) Q s.
Proof.
  intros HQ. unfold fwp, raw_read. cbn. unfold frem in HQ. destruct (si_chars (sc_in s)) as [|c r]; [destruct s; exact HQ|].
  destruct (is_breakz c); [destruct s; exact HQ|]. apply HQ; reflexivity.
Qed.
Lemma fwp_buf_is_empty (Q : bool -> fst_ -> Prop) s : Q (Nat.eqb (lk s) 0) s -> fwp (buf_is_empty str_ops) Q s.
Proof. intros HQ. exact HQ. Qed.
Lemma fwp_assert_buflen n site (Q : unit -> fst_ -> Prop) s : Q tt s -> fwp (assert_buflen str_ops n site) Q s.
Proof. intros HQ. unfold fwp, assert_buflen. destruct (Nat.ltb _ n); [exact I|exact HQ]. Qed.

(* a non-NUL character seen at the front means the input is not exhausted: consuming it decreases the measure *)
Lemma fnth0_nonzero_rl s : fnth s 0 <> 0%N -> 0 < rl s.
Proof. unfold fnth, rl. destruct (frem s); cbn; [congruence|lia]. Qed.
Lemma rl_skipn n s s' : frem s' = skipn n (frem s) -> rl s' = rl s - n.
Proof. unfold rl. intros ->. apply skipn_length. Qed.
Lemma rl_skipn_le n s s' : frem s' = skipn n (frem s) -> rl s' <= rl s.
Proof. intros H. rewrite (rl_skipn n s s' H). lia. Qed.
(* [tl l] is [skipn 1 l] *)
Lemma rl_tl s s' : frem s' = tl (frem s) -> rl s' = rl s - 1.
Proof. exact (rl_skipn 1 s s'). Qed.
Lemma rl_tl_le s s' : frem s' = tl (frem s) -> rl s' <= rl s.
Proof. exact (rl_skipn_le 1 s s'). Qed.

(* ---------------- contracts (proved in the ScanFuel*.v files) ----------------
   [F] is the model's fuel parameter (every inner loop gets F afresh).  [fuel_ok F s]: F is at least twice the
   remaining length plus slack (the slack pays for chunk refreshes and loop exits). *)
Definition fuel_ok (F : nat) (s : fst_) : Prop := 2 * rl s + 6 <= F.
Definition le_post (s : fst_) {A} : A -> fst_ -> Prop := fun _ s' => rl s' <= rl s /\ lk s <= lk s'.
Definition lt_post (s : fst_) {A} : A -> fst_ -> Prop := fun _ s' => rl s' < rl s /\ lk s <= lk s'.

Lemma fuel_ok_le F s s' : fuel_ok F s -> rl s' <= rl s -> fuel_ok F s'.
Proof. unfold fuel_ok. lia. Qed.

Definition fuel_skip_to_next_token : Prop := forall F s, fuel_ok F s -> fwp (skip_to_next_token str_ops F) (le_post s) s.
Definition fuel_skip_ws_to_eol : Prop := forall F stb s, fuel_ok F s -> fwp (skip_ws_to_eol str_ops F stb) (le_post s) s.
Definition fuel_skip_yaml_whitespace : Prop := forall F s, fuel_ok F s -> fwp (skip_yaml_whitespace str_ops F) (le_post s) s.
(* the token scanners are entered on a character that is not NUL (the dispatcher has just seen it) and consume it *)
Definition fuel_scan_directive : Prop := forall F s, fuel_ok F s -> fnth s 0 <> 0%N -> fwp (scan_directive str_ops F) (lt_post s) s.
Definition fuel_scan_tag : Prop := forall F s, fuel_ok F s -> fnth s 0 <> 0%N -> fwp (scan_tag str_ops F) (lt_post s) s.
Definition fuel_scan_anchor : Prop := forall F alias s, fuel_ok F s -> fnth s 0 <> 0%N -> fwp (scan_anchor str_ops F alias) (lt_post s) s.
Definition fuel_scan_flow_scalar : Prop := forall F single s, fuel_ok F s -> fnth s 0 <> 0%N -> fwp (scan_flow_scalar str_ops F single) (lt_post s) s.
Definition fuel_scan_plain_scalar : Prop := forall F s, fuel_ok F s -> 1 <= lk s -> fwp (scan_plain_scalar str_ops F) (lt_post s) s.
Definition fuel_scan_block_scalar : Prop := forall F literal s, fuel_ok F s -> fnth s 0 <> 0%N -> 1 <= lk s -> fwp (scan_block_scalar str_ops F literal) (lt_post s) s.
