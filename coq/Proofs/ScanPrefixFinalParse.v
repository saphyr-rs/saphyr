(* C15, parser level: the events WITHOUT spans depend on the tokens only up to their spans.

   The parser model (Parser.v) never looks inside a marker: every parser function commutes with a map on markers
   (ParserMap.v).  Here the map is the ERASURE [em _ = mk0] of every marker; because the commutation
   is an EQUATION  state_machine (epa p) = mres eep (state_machine p),  it can be read backwards: two parsers with the
   same erasure take the same steps, and their events have the same erasure.

     state_machine_erase   state_machine (epa p) = mres eep (state_machine p)
     steps_lift            steps p evs q -> epa p = epa p' -> exists evs' q', steps p' evs' q' /\ same erasures
     accepts_up_to_spans   accepts toks keep evs -> map etk toks' = map etk toks ->
                           exists evs', accepts toks' keep evs' /\ evs_of evs' = evs_of evs *)
From Coq Require Import List NArith Bool Arith Lia.
Import ListNotations.
Require Import Parser SBase SPrim SDir SScalar SFetch Pipe DocRun ParserMap.
Local Open Scope nat_scope.

Section ParseErase.

Definition em (m : marker) : marker := mk0.
Definition esp (s : span) : span := {| sp_start := em (sp_start s); sp_end := em (sp_end s) |}.
Definition etk (t : token) : token := (esp (fst t), snd t).
Definition est (s : pstate) : pstate :=
  match s with SFlowSequenceEntryMappingEnd m => SFlowSequenceEntryMappingEnd (em m) | s => s end.
Definition epa (p : parser) : parser :=
  {| p_toks := map etk (p_toks p); p_token := option_map etk (p_token p);
     p_states := map est (p_states p); p_state := est (p_state p);
     p_anchors := p_anchors p; p_anchor_id := p_anchor_id p; p_tags := p_tags p; p_keep_tags := p_keep_tags p |}.
Definition eev (v : event * span) : event * span := (fst v, esp (snd v)).
(* on the values the parser functions return *)
Definition ept (v : token * parser) : token * parser := (etk (fst v), epa (snd v)).
Definition eep (v : (event * span) * parser) : (event * span) * parser := (eev (fst v), epa (snd v)).
Definition e3 (v : N * option tag * parser) : N * option tag * parser := (fst v, epa (snd v)).
Definition mres {A B} (f : A -> B) (r : Parser.res A) : Parser.res B :=
  match r with
  | Parser.Ok v => Parser.Ok (f v)
  | Parser.Err PErrScan => Parser.Err PErrScan
  | Parser.Err (PErr s m) => Parser.Err (PErr s (em m))
  | Parser.Panic n => Parser.Panic n
  end.

(* Every parser function commutes with the erasure *)
Definition rc {A B} (f : A -> B) (r : Parser.res A) (r' : Parser.res B) : Prop := r' = mres f r.

Lemma node_props_comm p t : rc e3 (node_props p t) (node_props (epa p) (etk t)).
Proof. exact (node_props_map em p t). Qed.
Lemma node_content_comm p aid tg b i : rc eep (node_content p aid tg b i) (node_content (epa p) aid tg b i).
Proof. exact (node_content_map em p aid tg b i). Qed.
Lemma process_directives_call p vs tags :
  rc epa (process_directives (S (S (length (p_toks p)))) p vs tags)
         (process_directives (S (S (length (p_toks (epa p))))) (epa p) vs tags).
Proof. exact (process_directives_call_map em p vs tags). Qed.
Lemma skip_document_ends_call p :
  rc epa (skip_document_ends (S (S (length (p_toks p)))) p)
         (skip_document_ends (S (S (length (p_toks (epa p))))) (epa p)).
Proof. exact (skip_document_ends_call_map em p). Qed.
Lemma explicit_document_start_comm p : rc eep (explicit_document_start p) (explicit_document_start (epa p)).
Proof. exact (explicit_document_start_map em p). Qed.

Theorem state_machine_comm p : rc eep (state_machine p) (state_machine (epa p)).
Proof. exact (state_machine_map em p). Qed.

(* Runs *)
Theorem state_machine_erase p : state_machine (epa p) = mres eep (state_machine p).
Proof. exact (state_machine_comm p). Qed.

Lemma est_end s : est s = SEnd -> s = SEnd.
Proof. destruct s; cbn [est]; intros H; first [exact H|discriminate H]. Qed.

Lemma steps_lift p evs q : steps p evs q -> forall p', epa p' = epa p ->
  exists evs' q', steps p' evs' q' /\ map eev evs' = map eev evs /\ epa q' = epa q.
Proof.
  induction 1 as [p|p e p1 l p2 H1 _ IH]; intros p' EP.
  - exists [], p'. split; [constructor|]. split; [reflexivity|exact EP].
  - pose proof (state_machine_erase p) as C1. pose proof (state_machine_erase p') as C2.
    rewrite EP, C1, H1 in C2. cbn [mres] in C2.
    destruct (state_machine p') as [[e' p1']|[|s m]|n] eqn:E'; cbn [mres] in C2; try discriminate C2.
    assert (EE : eep (e, p1) = eep (e', p1')) by congruence.
    assert (Ee : eev e = eev e') by exact (f_equal fst EE).
    assert (Ep : epa p1 = epa p1') by exact (f_equal snd EE).
    destruct (IH p1' (eq_sym Ep)) as (evs' & q' & HS & HM & HQ).
    exists (e' :: evs'), q'. split; [econstructor; [exact E'|exact HS]|]. split; [|exact HQ].
    cbn [map]. rewrite HM, Ee. reflexivity.
Qed.

Lemma epa_start toks keep : epa (start_parser toks keep) = start_parser (map etk toks) keep.
Proof. reflexivity. Qed.
Lemma evs_of_eev l : evs_of (map eev l) = evs_of l.
Proof. unfold evs_of. rewrite map_map. reflexivity. Qed.

Theorem accepts_up_to_spans toks toks' keep evs :
  accepts toks keep evs -> map etk toks' = map etk toks ->
  exists evs', accepts toks' keep evs' /\ evs_of evs' = evs_of evs.
Proof.
  intros (q & HS & HE) ET.
  destruct (steps_lift _ _ _ HS (start_parser toks' keep)) as (evs' & q' & HS' & HM & HQ).
  { rewrite !epa_start, ET. reflexivity. }
  exists evs'. split.
  - exists q'. split; [exact HS'|]. apply est_end.
    assert (EQ : p_state (epa q') = p_state (epa q)) by (rewrite HQ; reflexivity).
    cbn [epa p_state] in EQ. rewrite EQ, HE. reflexivity.
  - rewrite <- (evs_of_eev evs'), HM, evs_of_eev. reflexivity.
Qed.
End ParseErase.

Print Assumptions state_machine_erase.
Print Assumptions accepts_up_to_spans.
