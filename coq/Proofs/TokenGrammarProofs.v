(* C03, parser half: the pull parser (Model/Parser.v) run on the token list of a layout tree emits exactly the
   events the tree denotes.  LL(1)-machine-versus-grammar proof: induction on the tree with a continuation lemma
   ("from any parser whose top continuation is s, parsing tokens_of t ++ x :: rest emits the events of t and
   resumes in state s with x :: rest").  The token source is the parser's own [p_toks] with its one-token cache
   [p_token]; spans are arbitrary.  The state functions are walked in the two-way form of Proofs/ParserView.v.
   The last part runs one document with its directives and markers ([doc_run]); the one-document theorem here and the
   stream theorem of TokenStreamProofs.v both rest on it. *)
From Coq Require Import List NArith Bool Lia.
Import ListNotations.
Require Import Parser TokenGrammar ParserView StrEqb.

Arguments N.add : simpl never.
Arguments N.ltb : simpl never.

(* what the parser still sees, and a view of the parser that hides the cache *)
Definition upcoming (p : parser) : list token :=
  match p_token p with Some t => t :: p_toks p | None => p_toks p end.

Record pview := mkv {
  v_up : list token; v_state : pstate; v_stack : list pstate;
  v_anchors : list (str * N); v_aid : N; v_tags : list (str * str); v_keep : bool }.
Definition view (p : parser) : pview :=
  mkv (upcoming p) (p_state p) (p_states p) (p_anchors p) (p_anchor_id p) (p_tags p) (p_keep_tags p).

Definition mkp (r : list token) (c : option token) (s : pstate) (k : list pstate) (a : list (str * N)) (n : N)
  (tg : list (str * str)) (kp : bool) : parser :=
  {| p_toks := r; p_token := c; p_states := k; p_state := s; p_anchors := a; p_anchor_id := n; p_tags := tg; p_keep_tags := kp |}.

Lemma peek_view p t r s k a n tg kp :
  view p = mkv (t :: r) s k a n tg kp -> peek p = Ok (t, mkp r (Some t) s k a n tg kp).
Proof.
  destruct p as [toks tok stks st anc aid tags keep]. unfold view, upcoming, peek, mkp. cbn.
  destruct tok as [t0|]; intros H; inversion H; subst; reflexivity.
Qed.

Lemma view_state p u s k a n tg kp : view p = mkv u s k a n tg kp -> p_state p = s.
Proof. unfold view. intros H; inversion H; reflexivity. Qed.

Lemma view_set_state p u s k a n tg kp s' :
  view p = mkv u s k a n tg kp -> view (set_state p s') = mkv u s' k a n tg kp.
Proof. unfold view, upcoming. cbn. intros H; inversion H; subst. reflexivity. Qed.

Lemma view_mkp_some r t s k a n tg kp : view (mkp r (Some t) s k a n tg kp) = mkv (t :: r) s k a n tg kp.
Proof. reflexivity. Qed.
Lemma view_mkp_none r s k a n tg kp : view (mkp r None s k a n tg kp) = mkv r s k a n tg kp.
Proof. reflexivity. Qed.

Ltac vpeek H := rewrite (peek_view _ _ _ _ _ _ _ _ _ H).

(* runs of the state machine *)
Definition sres := res ((event * span) * parser).

Inductive steps : parser -> list event -> parser -> Prop :=
| steps_nil p : steps p [] p
| steps_cons p e sp p' evs p'' :
    state_machine p = Ok ((e, sp), p') -> steps p' evs p'' -> steps p (e :: evs) p''.

(* [run f evs p2]: the call f yields the first event of evs, the state machine the others, ending in p2 *)
Definition run (f : sres) (evs : list event) (p2 : parser) : Prop :=
  match evs with
  | [] => False
  | e :: evs' => exists sp p1, f = Ok ((e, sp), p1) /\ steps p1 evs' p2
  end.

Lemma steps_app p a q b r : steps p a q -> steps q b r -> steps p (a ++ b) r.
Proof. induction 1; intros; cbn; [assumption|]. econstructor; eauto. Qed.

Lemma run_app f a q b r : run f a q -> steps q b r -> run f (a ++ b) r.
Proof.
  destruct a as [|e a]; cbn; [tauto|]. intros (sp & p1 & H1 & H2) H3.
  exists sp, p1. split; [assumption|]. eapply steps_app; eauto.
Qed.

Lemma run_steps p evs q : run (state_machine p) evs q -> steps p evs q.
Proof. destruct evs as [|e evs]; cbn; [tauto|]. intros (sp & p1 & H1 & H2). econstructor; eauto. Qed.

Lemma run_cons f e sp p1 evs p2 : f = Ok ((e, sp), p1) -> steps p1 evs p2 -> run f (e :: evs) p2.
Proof. intros -> H. cbn. exists sp, p1. auto. Qed.

(* the function of each state *)
Lemma sm_block_sequence_entry q : p_state q = SBlockSequenceEntry -> state_machine q = block_sequence_entry q false.
Proof. unfold state_machine. intros ->. reflexivity. Qed.
Lemma sm_block_sequence_first q : p_state q = SBlockSequenceFirstEntry -> state_machine q = block_sequence_entry q true.
Proof. unfold state_machine. intros ->. reflexivity. Qed.
Lemma sm_indentless q : p_state q = SIndentlessSequenceEntry -> state_machine q = indentless_sequence_entry q.
Proof. unfold state_machine. intros ->. reflexivity. Qed.
Lemma sm_block_mapping_key q : p_state q = SBlockMappingKey -> state_machine q = block_mapping_key q false.
Proof. unfold state_machine. intros ->. reflexivity. Qed.
Lemma sm_block_mapping_first q : p_state q = SBlockMappingFirstKey -> state_machine q = block_mapping_key q true.
Proof. unfold state_machine. intros ->. reflexivity. Qed.
Lemma sm_block_mapping_value q : p_state q = SBlockMappingValue -> state_machine q = block_mapping_value q.
Proof. unfold state_machine. intros ->. reflexivity. Qed.
Lemma sm_flow_sequence_entry q : p_state q = SFlowSequenceEntry -> state_machine q = flow_sequence_entry q false.
Proof. unfold state_machine. intros ->. reflexivity. Qed.
Lemma sm_flow_sequence_first q : p_state q = SFlowSequenceFirstEntry -> state_machine q = flow_sequence_entry q true.
Proof. unfold state_machine. intros ->. reflexivity. Qed.
Lemma sm_fsem_key q : p_state q = SFlowSequenceEntryMappingKey -> state_machine q = flow_sequence_entry_mapping_key q.
Proof. unfold state_machine. intros ->. reflexivity. Qed.
Lemma sm_fsem_value q : p_state q = SFlowSequenceEntryMappingValue -> state_machine q = flow_sequence_entry_mapping_value q.
Proof. unfold state_machine. intros ->. reflexivity. Qed.
Lemma sm_fsem_end q m : p_state q = SFlowSequenceEntryMappingEnd m -> state_machine q = flow_sequence_entry_mapping_end q m.
Proof. unfold state_machine. intros ->. reflexivity. Qed.
Lemma sm_flow_mapping_key q : p_state q = SFlowMappingKey -> state_machine q = flow_mapping_key q false.
Proof. unfold state_machine. intros ->. reflexivity. Qed.
Lemma sm_flow_mapping_first q : p_state q = SFlowMappingFirstKey -> state_machine q = flow_mapping_key q true.
Proof. unfold state_machine. intros ->. reflexivity. Qed.
Lemma sm_flow_mapping_value q : p_state q = SFlowMappingValue -> state_machine q = flow_mapping_value q false.
Proof. unfold state_machine. intros ->. reflexivity. Qed.
Lemma sm_flow_mapping_empty_value q : p_state q = SFlowMappingEmptyValue -> state_machine q = flow_mapping_value q true.
Proof. unfold state_machine. intros ->. reflexivity. Qed.
Lemma sm_document_end q : p_state q = SDocumentEnd -> state_machine q = document_end q.
Proof. unfold state_machine. intros ->. reflexivity. Qed.
Lemma sm_end q : p_state q = SEnd -> state_machine q = Panic 2.
Proof. unfold state_machine. intros ->. reflexivity. Qed.

Definition doc_state (es : bool) : pstate := if es then SDocumentContent else SBlockNode.
(* the state between two documents; closed: the last one was ended by '...' (or there is none) *)
Definition between (closed : bool) : pstate := if closed then SImplicitDocumentStart else SDocumentStart.

Lemma sm_between closed q : p_state q = between closed -> state_machine q = document_start q closed.
Proof. unfold state_machine. intros ->. destruct closed; reflexivity. Qed.
Lemma sm_doc_state es q : p_state q = doc_state es ->
  state_machine q = if es then document_content q else parse_node q true false.
Proof. unfold state_machine. intros ->. destruct es; reflexivity. Qed.

Lemma steps_no_end p e evs q : steps p (e :: evs) q -> p_state p <> SEnd.
Proof. intros H E. inversion H; subst. rewrite (sm_end _ E) in *. discriminate. Qed.

(* numbering over concatenations *)
Lemma env_after_app e a b : env_after e (a ++ b) = env_after (env_after e a) b.
Proof. unfold env_after. apply fold_left_app. Qed.

Lemma number_app tg a : forall e b, number tg e (a ++ b) = number tg e a ++ number tg (env_after e a) b.
Proof. induction a as [|x a IH]; intros e b; cbn; [reflexivity|]. rewrite IH. reflexivity. Qed.

Lemma bound_app tg a : forall e b, bound tg e (a ++ b) = bound tg e a && bound tg (env_after e a) b.
Proof.
  induction a as [|x a IH]; intros e b; cbn; [reflexivity|]. rewrite IH, andb_assoc. reflexivity.
Qed.

Lemma reg_next_pos a e : (0 < ae_next e)%N -> (0 < ae_next (snd (reg a e)))%N.
Proof. destruct a; cbn; lia. Qed.

Lemma env_step_pos e x : (0 < ae_next e)%N -> (0 < ae_next (env_step e x))%N.
Proof. destruct x; cbn [env_step]; auto using reg_next_pos. Qed.

Lemma env_after_pos l : forall e, (0 < ae_next e)%N -> (0 < ae_next (env_after e l))%N.
Proof.
  induction l as [|x l IH]; intros e H; cbn; [assumption|]. apply IH, env_step_pos, H.
Qed.

Definition penv (a : list (str * N)) (n : N) : aenv := {| ae_map := a; ae_next := n |}.

Lemma reg_id_pos an a n : (0 < n)%N -> (0 <? fst (reg (Some an) (penv a n)))%N = true.
Proof. cbn. intros. apply N.ltb_lt. assumption. Qed.

(* the events l can be numbered from e: aliases and tag handles resolve, and the next anchor id is not 0, the id of
   "no anchor" *)
Definition fits (tg : list (str * str)) (e : aenv) (l : list pev) : Prop :=
  bound tg e l = true /\ (0 < ae_next e)%N.

Lemma fits_cons tg e x l : fits tg e (x :: l) -> bound1 tg e x = true /\ fits tg (env_step e x) l.
Proof.
  intros [Hb Hn]. cbn [bound] in Hb. apply andb_prop in Hb as [H1 Hb].
  split; [exact H1|]. split; [exact Hb | apply env_step_pos, Hn].
Qed.

Lemma fits_app tg e a b : fits tg e (a ++ b) -> fits tg e a /\ fits tg (env_after e a) b.
Proof.
  intros [Hb Hn]. rewrite bound_app in Hb. apply andb_prop in Hb as [Ha Hb].
  split; split; auto using env_after_pos.
Qed.

(* emitting the events of a piece of layout *)
(* [emits g l u S K e tg kp]: the call g and then the state machine emit l, numbered from e, and leave a parser that
   sees u in state S over the stack K, with the anchors registered in l *)
Definition emits (g : sres) (l : list pev) (u : list token) (S : pstate) (K : list pstate) (e : aenv)
  (tg : list (str * str)) (kp : bool) : Prop :=
  exists p1, run g (number tg e l) p1 /\
    view p1 = mkv u S K (ae_map (env_after e l)) (ae_next (env_after e l)) tg kp.

Lemma emits_one g x sp q u S K e tg kp :
  g = Ok ((number1 tg e x, sp), q) ->
  view q = mkv u S K (ae_map (env_step e x)) (ae_next (env_step e x)) tg kp ->
  emits g [x] u S K e tg kp.
Proof. intros Eg Vq. exists q. split; [eapply run_cons; [exact Eg|constructor] | exact Vq]. Qed.

Lemma emits_cons g x sp q l u S K e tg kp :
  g = Ok ((number1 tg e x, sp), q) -> emits (state_machine q) l u S K (env_step e x) tg kp ->
  emits g (x :: l) u S K e tg kp.
Proof.
  intros Eg (p1 & R & V). exists p1. split; [|exact V]. eapply run_cons; [exact Eg | apply run_steps, R].
Qed.

(* F is the function of state S1 *)
Lemma emits_app (F : parser -> sres) g a b u1 S1 K1 u2 S2 K2 e tg kp :
  (forall q, p_state q = S1 -> state_machine q = F q) ->
  emits g a u1 S1 K1 e tg kp ->
  (forall p1, view p1 = mkv u1 S1 K1 (ae_map (env_after e a)) (ae_next (env_after e a)) tg kp ->
     emits (F p1) b u2 S2 K2 (env_after e a) tg kp) ->
  emits g (a ++ b) u2 S2 K2 e tg kp.
Proof.
  intros HF (p1 & R1 & V1) H2. destruct (H2 p1 V1) as (p2 & R2 & V2).
  exists p2. rewrite number_app, env_after_app. split; [|exact V2].
  eapply run_app; [exact R1|]. apply run_steps. rewrite (HF p1 (view_state _ _ _ _ _ _ _ _ V1)). exact R2.
Qed.
(* tags *)
Lemma resolve_tag_pure p m h s :
  resolve_tag p m h s = match resolve_pure (p_tags p) h s with Some t => Ok t | None => Err (PErr 20 m) end.
Proof.
  unfold resolve_tag, resolve_pure.
  destruct (str_eqb h [bang; bang]); [reflexivity|].
  destruct ((match h with [] => true | _ => false end) && str_eqb s [bang]); [reflexivity|].
  destruct (assoc h (p_tags p)); [reflexivity|]. destruct (is_named_handle h); reflexivity.
Qed.

(* token classes *)
(* tokens that cannot start a node's content or properties: what may follow a node *)
Definition follow (x : tok) : bool :=
  match x with
  | TScalar _ _ | TFlowSequenceStart | TFlowMappingStart | TBlockSequenceStart | TBlockMappingStart
  | TAnchor _ | TTag _ _ | TAlias _ => false
  | _ => true
  end.
Definition kvbe (x : tok) : bool :=
  match x with TKey | TValue | TBlockEnd => true | _ => false end.
Definition is_start (x : tok) : bool :=
  match x with
  | TScalar _ _ | TFlowSequenceStart | TFlowMappingStart | TBlockSequenceStart | TBlockMappingStart
  | TAnchor _ | TTag _ _ | TAlias _ => true
  | _ => false
  end.

Lemma start_not_follow x : is_start x = true -> follow x = false.
Proof. destruct x; cbn; congruence. Qed.

(* the state functions test for tokens that may follow a node; a token that starts one is none of them *)
Lemma start_not_tis c x : bare c = true -> follow c = true -> is_start x = true -> tis c x = false.
Proof.
  intros Hc Hf Hx. destruct (tis c x) eqn:E; [|reflexivity].
  apply (tis_bare c x Hc) in E. subst x. rewrite (start_not_follow _ Hx) in Hf. discriminate.
Qed.

(* [after i l]: every token of l may follow a node, and a node parsed with indentless = i *)
Definition after (i : bool) (l : list tok) : bool :=
  forallb (fun c => bare c && follow c && (negb i || kvbe c)) l.

Lemma after_in i l x : after i l = true -> tin l x = true -> follow x = true /\ (i = true -> kvbe x = true).
Proof.
  unfold after, tin. rewrite forallb_forall. intros Hl Hx.
  apply existsb_exists in Hx as (c & Hc & E). specialize (Hl c Hc).
  apply andb_prop in Hl as [Hl Hk]. apply andb_prop in Hl as [Hb Hf].
  apply (tis_bare c x Hb) in E. subst x. split; [exact Hf|]. intros ->. exact Hk.
Qed.

Lemma props_toks_start pr : has_some_props pr = true ->
  exists y ys, props_toks pr = y :: ys /\ is_start y = true.
Proof.
  unfold has_some_props, props_toks, opt_tok. destruct pr as [[a|] [[h s]|] [|]]; cbn; intros H;
    try discriminate; eexists; eexists; split; reflexivity.
Qed.

(* properties, then a token c that is a possible first token itself *)
Lemma props_then pr c l i : is_start c = true \/ (i = true /\ c = TBlockEntry) ->
  exists y ys, props_toks pr ++ c :: l = y :: ys /\ (is_start y = true \/ (i = true /\ y = TBlockEntry)).
Proof.
  intros Hc. unfold props_toks, opt_tok. destruct pr as [[a|] [[h s]|] [|]]; cbn;
    eexists; eexists; (split; [reflexivity|]); auto.
Qed.

(* the first token of a well-formed node *)
Lemma first_tok b i t : wf b i t = true ->
  exists y ys, tokens_of t = y :: ys /\ (is_start y = true \/ (i = true /\ y = TBlockEntry)).
Proof.
  destruct t; cbn [wf tokens_of]; intros H; try discriminate; try (apply props_then; left; reflexivity).
  - eauto.
  - destruct (props_toks_start pr H) as (y & ys & E & S). eauto.
  - apply andb_prop in H as [H _]. apply andb_prop in H as [H Hn]. apply andb_prop in H as [_ ->].
    destruct items as [|x items]; [discriminate|]. apply props_then. right. split; reflexivity.
Qed.

(* splitting a spanned token list along its token projection *)
Lemma map_snd_cons (ts : list token) a b :
  map snd ts = a :: b -> exists sp t2, ts = (sp, a) :: t2 /\ map snd t2 = b.
Proof.
  intros H. apply map_eq_cons in H as ([sp x] & t2 & E & Ex & Et). cbn in Ex. subst. eauto.
Qed.

Ltac split_toks :=
  repeat match goal with
         | H : map snd _ = _ ++ _ |- _ => apply map_eq_app in H as (? & ? & -> & ? & H)
         | H : map snd _ = _ :: _ |- _ => apply map_snd_cons in H as (? & ? & -> & H)
         | H : map snd _ = [] |- _ => apply map_eq_nil in H as ->
         end.

Lemma app_cons_head {A} (a : list A) y r : exists t u, a ++ y :: r = t :: u.
Proof. destruct a; cbn; eauto. Qed.

(* the tokens of a well-formed node, spanned, start with a node-start token *)
Lemma first_tok_spanned b i t (tx : list token) : wf b i t = true -> map snd tx = tokens_of t ->
  exists sp0 y0 tx', tx = (sp0, y0) :: tx' /\ (is_start y0 = true \/ (i = true /\ y0 = TBlockEntry)).
Proof.
  intros Hw Hm. destruct (first_tok b i t Hw) as (y0 & ys & E0 & S0). rewrite E0 in Hm.
  apply map_snd_cons in Hm as (sp0 & tx' & -> & _). eauto.
Qed.

Lemma first_not_after b i t (tx : list token) l : wf b i t = true -> map snd tx = tokens_of t -> after i l = true ->
  exists t0 tx', tx = t0 :: tx' /\ tin l (snd t0) = false.
Proof.
  intros Hw Hm Hl. destruct (first_tok_spanned b i t tx Hw Hm) as (sp0 & y0 & tx' & -> & S0).
  do 2 eexists. split; [reflexivity|]. cbn [snd]. destruct (tin l y0) eqn:E; [|reflexivity].
  destruct (after_in i l y0 Hl E) as (Hf & Hk). destruct S0 as [S0 | [-> ->]].
  - rewrite (start_not_follow _ S0) in Hf. discriminate.
  - discriminate (Hk eq_refl).
Qed.

(* parse_node: properties *)
Definition not_prop (x : tok) : bool :=
  match x with TAnchor _ | TTag _ _ | TAlias _ => false | _ => true end.

Lemma follow_not_prop x : follow x = true -> not_prop x = true.
Proof. destruct x; cbn; congruence. Qed.

Lemma not_prop_as x : not_prop x = true -> as_alias x = None /\ as_anchor x = None /\ as_tag x = None.
Proof. destruct x; cbn; intros; try discriminate; auto. Qed.

Lemma node_content_view q x u s k a n tg kp aid tgv b i : view q = mkv (x :: u) s k a n tg kp ->
  node_content q aid tgv b i = node_content (mkp u (Some x) s k a n tg kp) aid tgv b i.
Proof. intros Hv. unfold node_content. vpeek Hv. reflexivity. Qed.

(* the properties of a node are read, in either order, before its content is looked at *)
Local Opaque node_content node_props.
Lemma parse_node_props pr p tp x u st k e tg kp b i :
  view p = mkv (tp ++ x :: u) st k (ae_map e) (ae_next e) tg kp ->
  map snd tp = props_toks pr ->
  not_prop (snd x) = true ->
  tag_ok tg (pr_tag pr) = true ->
  parse_node p b i =
  node_content (mkp u (Some x) st k (ae_map (snd (reg (pr_anchor pr) e))) (ae_next (snd (reg (pr_anchor pr) e))) tg kp)
               (fst (reg (pr_anchor pr) e)) (tag_ev tg (pr_tag pr)) b i.
Proof.
  intros Hv Hm Hx Ht. destruct (not_prop_as _ Hx) as (Hal & Han & Htg).
  rewrite parse_node_if.
  destruct pr as [[an|] [[h s']|] tf]; unfold props_toks, opt_tok in Hm; cbn in Hm, Ht; destruct tf; cbn in Hm;
    split_toks; cbn [app] in Hv; vpeek Hv;
    try (destruct (resolve_pure tg h s') as [rt|] eqn:ER; [|discriminate]);
    cbn; rewrite ?Hal; rewrite node_props_if; cbn; rewrite ?Han, ?Htg, ?resolve_tag_pure; cbn; rewrite ?ER; cbn;
    rewrite ?Htg, ?Han;
    apply node_content_view; reflexivity.
Qed.
Local Transparent node_content node_props.

(* the continuation lemma, as a predicate on trees *)
Definition NodeSpec (t : ltree) : Prop :=
  forall b i p ts x rest st s k e tg kp,
    wf b i t = true ->
    view p = mkv (ts ++ x :: rest) st (s :: k) (ae_map e) (ae_next e) tg kp ->
    map snd ts = tokens_of t ->
    follow (snd x) = true -> (i = true -> kvbe (snd x) = true) ->
    bound tg e (pre_events t) = true ->
    (0 < ae_next e)%N ->
    exists p2, run (parse_node p b i) (number tg e (pre_events t)) p2 /\
      view p2 = mkv (x :: rest) s k (ae_map (env_after e (pre_events t)))
                    (ae_next (env_after e (pre_events t))) tg kp.

(* P on the nodes of a mapping entry, of a flow-sequence entry *)
Definition ent_all (P : ltree -> Prop) (en : entry ltree) : Prop := P (snd (fst en)) /\ P (snd (snd en)).
Definition fsent_all (P : ltree -> Prop) (en : ltree + (ltree * (bool * ltree))) : Prop :=
  match en with inl n => P n | inr (kn, (_, vn)) => P kn /\ P vn end.

Lemma node_scalar pr st v : NodeSpec (LScalar pr st v).
Proof.
  intros b i p ts x rest st0 s k e tg kp _ Hv Hm Hf _ Hb Hn.
  cbn [tokens_of] in Hm. apply map_eq_app in Hm as (tp & t2 & -> & Hmp & Hm).
  apply map_snd_cons in Hm as (sp & t3 & -> & Hm). apply map_eq_nil in Hm as ->.
  rewrite <- app_assoc in Hv. cbn [app] in Hv.
  cbn [pre_events bound bound1] in Hb. rewrite andb_true_r in Hb.
  eapply emits_one.
  - rewrite (parse_node_props pr p _ _ _ _ _ _ _ _ b i Hv Hmp eq_refl Hb). reflexivity.
  - reflexivity.
Qed.

Lemma node_alias nm : NodeSpec (LAlias nm).
Proof.
  intros b i p ts x rest st0 s k e tg kp _ Hv Hm Hf _ Hb Hn.
  cbn [tokens_of] in Hm. apply map_snd_cons in Hm as (sp & t2 & -> & Hm). apply map_eq_nil in Hm as ->.
  cbn [app] in Hv. cbn [pre_events bound bound1] in Hb. rewrite andb_true_r in Hb.
  destruct (assoc nm (ae_map e)) as [id|] eqn:EA; [|discriminate].
  eapply emits_one.
  - unfold parse_node. vpeek Hv. cbn. rewrite EA. reflexivity.
  - reflexivity.
Qed.

Lemma node_none : NodeSpec LNone.
Proof. intros b i p ts x rest st0 s k e tg kp Hw. discriminate. Qed.

Lemma has_props_ok pr e tg : has_some_props pr = true -> (0 < ae_next e)%N ->
  has_props (fst (reg (pr_anchor pr) e)) (tag_ev tg (pr_tag pr)) = true \/ tag_ok tg (pr_tag pr) = false.
Proof.
  unfold has_some_props, has_props, tag_ev, tag_ok. destruct pr as [[an|] [[h s]|] tf]; cbn; intros H Hn; try discriminate.
  - destruct (resolve_pure tg h s); auto.
  - left. apply N.ltb_lt. assumption.
  - destruct (resolve_pure tg h s); auto.
Qed.

(* properties without content: whatever may follow a node ends it, also BlockEntry where no indentless sequence may start *)
Lemma node_props_only pr : NodeSpec (LProps pr).
Proof.
  intros b i p ts x rest st0 s k e tg kp Hw Hv Hm Hf Hi Hb Hn.
  cbn [tokens_of wf] in Hm, Hw.
  cbn [pre_events bound bound1] in Hb. rewrite andb_true_r in Hb.
  destruct (has_props_ok pr e tg Hw Hn) as [HP|HP]; [|congruence].
  eapply emits_one.
  - rewrite (parse_node_props pr p _ _ _ _ _ _ _ _ b i Hv Hm (follow_not_prop _ Hf) Hb).
    match goal with |- node_content ?q ?aid ?tgv b i = _ =>
      assert (Hc : node_content q aid tgv b i = empty_or_err q aid tgv (fst x))
    end.
    { destruct x as [spx tk]. cbn [snd] in Hf, Hi. destruct tk; try discriminate; try reflexivity.
      destruct i; [discriminate (Hi eq_refl)|reflexivity]. }
    rewrite Hc. unfold empty_or_err. rewrite HP. reflexivity.
  - reflexivity.
Qed.

(* a child that may be left out *)
(* g is what a state function does once it stands before a child x that the syntax allows to be missing: t being the
   next token, at one of l the null scalar and on to S', else parse_node with S' pushed.  y, behind x, is one of l. *)
Lemma child_step x b i : NodeSpec x -> forall (g : sres) l S' (tx : list token) y r t u sp qe qn st s k e tg kp,
  is_none x || wf b i x = true ->
  map snd tx = tokens_of x ->
  tx ++ y :: r = t :: u ->
  g = (if tin l (snd t) then Ok ((empty_scalar, sp), qe) else parse_node qn b i) ->
  view qe = mkv (t :: u) S' (s :: k) (ae_map e) (ae_next e) tg kp ->
  view qn = mkv (t :: u) st (S' :: s :: k) (ae_map e) (ae_next e) tg kp ->
  tin l (snd y) = true -> after i l = true ->
  fits tg e (pre_events x) ->
  emits g (pre_events x) (y :: r) S' (s :: k) e tg kp.
Proof.
  intros Hx g l S' tx y r t u sp qe qn st s k e tg kp Hw Hm Et -> Ve Vn Hy Hl [Hb Hn].
  destruct (after_in i l _ Hl Hy) as (Hf & Hk).
  destruct (is_none x) eqn:EN; cbn [orb] in Hw.
  - destruct x; try discriminate. cbn [tokens_of] in Hm. apply map_eq_nil in Hm as ->.
    injection Et as <- <-. rewrite Hy. exact (emits_one _ pnull sp qe _ _ _ _ _ _ eq_refl Ve).
  - destruct (first_not_after b i x tx l Hw Hm Hl) as (t0 & tx' & -> & Ht0).
    injection Et as <- <-. rewrite Ht0.
    exact (Hx b i qn (t0 :: tx') y r st S' (s :: k) e tg kp Hw Vn Hm Hf Hk Hb Hn).
Qed.

Lemma child_node_or_empty x b i : NodeSpec x -> forall l S' p (tx : list token) y r st s k e tg kp,
  is_none x || wf b i x = true ->
  view p = mkv (tx ++ y :: r) st (s :: k) (ae_map e) (ae_next e) tg kp ->
  map snd tx = tokens_of x ->
  tin l (snd y) = true -> after i l = true ->
  fits tg e (pre_events x) ->
  emits (node_or_empty l p S' b i) (pre_events x) (y :: r) S' (s :: k) e tg kp.
Proof.
  intros Hx l S' p tx y r st s k e tg kp Hw Hv Hm Hy Hl Hok.
  destruct (app_cons_head tx y r) as (t & u & Et). rewrite Et in Hv.
  refine (child_step x b i Hx _ l S' tx y r t u _ _ _ _ s k e tg kp Hw Hm Et _ _ _ Hy Hl Hok).
  - unfold node_or_empty. vpeek Hv. reflexivity.
  - reflexivity.
  - reflexivity.
Qed.

(* the entries of a collection *)
(* F, the function of state S, parses one entry: from any parser that sees the entry's tokens and then y, one of l,
   it emits the entry's events and is in state S again *)
Definition entry_ok (F : parser -> sres) (S : pstate) (l toks : list tok) (pre : list pev) : Prop :=
  forall p (te : list token) y r st s k e tg kp,
    view p = mkv (te ++ y :: r) st (s :: k) (ae_map e) (ae_next e) tg kp ->
    map snd te = toks -> tin l (snd y) = true -> fits tg e pre ->
    emits (F p) pre (y :: r) S (s :: k) e tg kp.

(* behind each entry comes a token its contract allows: the first of the next entry or of w, what follows the entries *)
Fixpoint linked {A} (toks l : A -> list tok) (ents : list A) (w : list tok) : Prop :=
  match ents with
  | [] => True
  | en :: r => (exists y v, flat_map toks r ++ w = y :: v /\ tin (l en) y = true) /\ linked toks l r w
  end.

Lemma entries {A} (toks : A -> list tok) (pre : A -> list pev) (l : A -> list tok) (F : parser -> sres) (S : pstate)
  (fin : pev) (ents : list A) (w u : list token) s k tg kp :
  (forall q, p_state q = S -> state_machine q = F q) ->
  Forall (fun en => entry_ok F S (l en) (toks en) (pre en)) ents ->
  linked toks l ents (map snd w) ->
  (* at w the collection ends *)
  (forall p st e, view p = mkv w st (s :: k) (ae_map e) (ae_next e) tg kp -> emits (F p) [fin] u s k e tg kp) ->
  forall p (ts : list token) st e,
  view p = mkv (ts ++ w) st (s :: k) (ae_map e) (ae_next e) tg kp ->
  map snd ts = flat_map toks ents ->
  fits tg e (flat_map pre ents ++ [fin]) ->
  emits (F p) (flat_map pre ents ++ [fin]) u s k e tg kp.
Proof.
  intros HF Hents Hl Hend. induction Hents as [|en ents Hen _ IH]; intros p ts st e Hv Hm Hok.
  - cbn [flat_map] in Hm. apply map_eq_nil in Hm as ->. exact (Hend p st e Hv).
  - destruct Hl as [(y & v & Ey & Hy) Hl].
    cbn [flat_map] in Hm, Hok |- *. apply map_eq_app in Hm as (te & ts' & -> & Hme & Hm).
    rewrite <- app_assoc in Hok. apply fits_app in Hok as [Hoke Hok].
    rewrite <- Hm, <- map_app in Ey. apply map_snd_cons in Ey as (sy & r & Ey & _).
    rewrite <- app_assoc in Hv |- *. unfold token in *. rewrite Ey in Hv.
    eapply (emits_app F); [exact HF | exact (Hen p te (sy, y) r st s k e tg kp Hv Hme Hy Hoke) |].
    intros p1 V1. apply (IH Hl p1 ts' S); [rewrite Ey; exact V1 | exact Hm | exact Hok].
Qed.

(* the entries all begin with the token sep, and sep is among the tokens l0 allowed behind each *)
Lemma linked_sep {A} (toks : A -> list tok) l0 sep (ents : list A) w :
  (forall en, In en ents -> exists v, toks en = sep :: v) -> tin l0 sep = true ->
  (exists y v, w = y :: v /\ tin l0 y = true) ->
  linked toks (fun _ => l0) ents w.
Proof.
  intros Hs Hsep Hw. induction ents as [|en ents IH]; cbn [linked]; [exact I|].
  split; [|apply IH; intros en' Hin; apply Hs; right; exact Hin].
  destruct ents as [|en' ents']; cbn [flat_map app]; [exact Hw|].
  destruct (Hs en' (or_intror (or_introl eq_refl))) as (v & ->). cbn [app]. eauto.
Qed.

Lemma Forall_forallb {A} (P Q : A -> Prop) (f : A -> bool) l :
  (forall x, P x -> f x = true -> Q x) -> Forall P l -> forallb f l = true -> Forall Q l.
Proof.
  intros H HP. induction HP as [|x l Hx _ IH]; cbn [forallb]; intros Hf; constructor;
    apply andb_prop in Hf as [Hfx Hf]; auto.
Qed.

(* block sequences *)
(* the first entry: the start token of the collection, still in the cache, is dropped *)
Lemma bse_first_view p t u s k a n tg kp : view p = mkv (t :: u) s k a n tg kp ->
  block_sequence_entry p true = block_sequence_entry (mkp u None s k a n tg kp) false.
Proof. intros Hv. unfold block_sequence_entry. vpeek Hv. reflexivity. Qed.

Lemma bse_first u t0 S K a n tg kp :
  block_sequence_entry (mkp u (Some t0) S K a n tg kp) true = block_sequence_entry (mkp u None S K a n tg kp) false.
Proof. apply (bse_first_view _ t0). reflexivity. Qed.

Lemma bseq_entry x : NodeSpec x -> is_none x || wf true false x = true ->
  entry_ok (fun p => block_sequence_entry p false) SBlockSequenceEntry [TBlockEntry; TBlockEnd]
           (TBlockEntry :: tokens_of x) (pre_events x).
Proof.
  intros Hx Hw p te y r st s k e tg kp Hv Hm Hy Hok.
  apply map_snd_cons in Hm as (sp1 & tx & -> & Hm). cbn [app] in Hv.
  rewrite block_sequence_entry_if. cbn iota. vpeek Hv. cbn [tis].
  refine (child_node_or_empty x true false Hx _ _ _ tx y r st s k e tg kp Hw _ Hm Hy eq_refl Hok). reflexivity.
Qed.

Lemma node_bseq pr items : Forall NodeSpec items -> NodeSpec (LBSeq pr items).
Proof.
  intros HF b i p ts x rest st0 s k e tg kp Hw Hv Hm Hf _ Hb Hn.
  cbn [wf] in Hw. apply andb_prop in Hw as [-> Hw].
  cbn [tokens_of] in Hm.
  apply map_eq_app in Hm as (tp & t2 & -> & Hmp & Hm).
  apply map_snd_cons in Hm as (spS & t3 & -> & Hm).
  apply map_eq_app in Hm as (tb & t4 & -> & Hmb & Hm).
  apply map_snd_cons in Hm as (spE & t5 & -> & Hm). apply map_eq_nil in Hm as ->.
  rewrite <- !app_assoc in Hv. cbn [app] in Hv. rewrite <- !app_assoc in Hv. cbn [app] in Hv.
  cbn [pre_events] in Hb |- *. destruct (fits_cons _ _ _ _ (conj Hb Hn)) as [Hb1 Hok].
  eapply emits_cons.
  - rewrite (parse_node_props pr p _ _ _ _ _ _ _ _ true i Hv Hmp eq_refl Hb1). reflexivity.
  - rewrite sm_block_sequence_first by reflexivity. erewrite bse_first_view by reflexivity.
    apply (entries (fun x => TBlockEntry :: tokens_of x) pre_events (fun _ => [TBlockEntry; TBlockEnd]) _
                   SBlockSequenceEntry PSeqEnd items ((spE, TBlockEnd) :: x :: rest) (x :: rest) s k tg kp
                   sm_block_sequence_entry) with (ts := tb) (st := SBlockSequenceFirstEntry).
    + exact (Forall_forallb _ _ _ _ bseq_entry HF Hw).
    + apply (linked_sep _ _ TBlockEntry); cbn; eauto.
    + intros q st e' Vq. eapply emits_one; [unfold block_sequence_entry; vpeek Vq; reflexivity | reflexivity].
    + reflexivity.
    + exact Hmb.
    + exact Hok.
Qed.

(* indentless sequences *)
Lemma kvbe_tin x : kvbe x = tin [TKey; TValue; TBlockEnd] x.
Proof. destruct x; reflexivity. Qed.

Lemma iseq_entry x : NodeSpec x -> is_none x || wf true false x = true ->
  entry_ok indentless_sequence_entry SIndentlessSequenceEntry [TBlockEntry; TKey; TValue; TBlockEnd]
           (TBlockEntry :: tokens_of x) (pre_events x).
Proof.
  intros Hx Hw p te y r st s k e tg kp Hv Hm Hy Hok.
  apply map_snd_cons in Hm as (sp1 & tx & -> & Hm). cbn [app] in Hv.
  rewrite indentless_sequence_entry_if. vpeek Hv. cbn [tis snd].
  refine (child_node_or_empty x true false Hx _ _ _ tx y r st s k e tg kp Hw _ Hm Hy eq_refl Hok). reflexivity.
Qed.

Lemma node_iseq pr items : Forall NodeSpec items -> NodeSpec (LISeq pr items).
Proof.
  intros HF b i p ts x rest st0 s k e tg kp Hw Hv Hm Hf Hi Hb Hn.
  cbn [wf] in Hw. apply andb_prop in Hw as [Hw Hw2]. apply andb_prop in Hw as [Hw Hne].
  apply andb_prop in Hw as [-> ->]. specialize (Hi eq_refl). rewrite kvbe_tin in Hi.
  cbn [tokens_of] in Hm. apply map_eq_app in Hm as (tp & tb & -> & Hmp & Hmb).
  rewrite <- app_assoc in Hv.
  (* parse_node stops at the first BlockEntry and leaves it where it is *)
  destruct items as [|x0 items]; [discriminate|].
  pose proof Hmb as Hmb'. cbn [flat_map app] in Hmb'. apply map_snd_cons in Hmb' as (sp1 & tb' & Etb & _).
  rewrite Etb in Hv. cbn [app] in Hv.
  cbn [pre_events] in Hb |- *. destruct (fits_cons _ _ _ _ (conj Hb Hn)) as [Hb1 Hok].
  eapply emits_cons.
  - rewrite (parse_node_props pr p _ _ _ _ _ _ _ _ true true Hv Hmp eq_refl Hb1). reflexivity.
  - rewrite sm_indentless by reflexivity.
    apply (entries (fun x => TBlockEntry :: tokens_of x) pre_events (fun _ => [TBlockEntry; TKey; TValue; TBlockEnd]) _
                   SIndentlessSequenceEntry PSeqEnd (x0 :: items) (x :: rest) (x :: rest) s k tg kp
                   sm_indentless) with (ts := tb) (st := SIndentlessSequenceEntry).
    + exact (Forall_forallb _ _ _ _ iseq_entry HF Hw2).
    + apply (linked_sep _ _ TBlockEntry); [eauto | reflexivity |].
      exists (snd x), (map snd rest). split; [reflexivity|]. cbn [tin existsb] in Hi |- *. rewrite Hi. apply orb_true_r.
    + intros q st e' Vq. destruct x as [spx tk]. cbn [snd] in Hi.
      assert (E : tis TBlockEntry tk = false) by (destruct tk; try discriminate; reflexivity).
      eapply emits_one; [rewrite indentless_sequence_entry_if; vpeek Vq; cbn [snd fst]; rewrite E |]; reflexivity.
    + rewrite Etb. reflexivity.
    + exact Hmb.
    + exact Hok.
Qed.

(* block mappings *)

Lemma bmk_first_view p t u s k a n tg kp : view p = mkv (t :: u) s k a n tg kp ->
  block_mapping_key p true = block_mapping_key (mkp u None s k a n tg kp) false.
Proof. intros Hv. unfold block_mapping_key. vpeek Hv. reflexivity. Qed.

Lemma bmk_first u t0 S K a n tg kp :
  block_mapping_key (mkp u (Some t0) S K a n tg kp) true = block_mapping_key (mkp u None S K a n tg kp) false.
Proof. apply (bmk_first_view _ t0). reflexivity. Qed.

(* an entry without Value token must not be followed by a Value token: that would be read as its own *)
Definition bm_after (vt : bool) : list tok := if vt then [TKey; TValue; TBlockEnd] else [TKey; TBlockEnd].

Lemma bm_key kt kn : NodeSpec kn -> is_none kn || wf true true kn = true ->
  forall p (tkk tk : list token) y r st s k e tg kp,
  kt = true \/ (is_none kn = true /\ snd y = TValue) ->
  view p = mkv (tkk ++ tk ++ y :: r) st (s :: k) (ae_map e) (ae_next e) tg kp ->
  map snd tkk = flag kt TKey -> map snd tk = tokens_of kn ->
  tin [TKey; TValue; TBlockEnd] (snd y) = true -> fits tg e (pre_events kn) ->
  emits (block_mapping_key p false) (pre_events kn) (y :: r) SBlockMappingValue (s :: k) e tg kp.
Proof.
  intros Hk Hw p tkk tk y r st s k e tg kp Hkt Hv Hmkk Hmk Hy Hok.
  rewrite block_mapping_key_if. cbn iota. destruct kt; cbn [flag] in Hmkk.
  - apply map_snd_cons in Hmkk as (spK & t3 & -> & Hmkk). apply map_eq_nil in Hmkk as ->. cbn [app] in Hv.
    vpeek Hv. cbn [tis].
    refine (child_node_or_empty kn true true Hk _ _ _ tk y r st s k e tg kp Hw _ Hmk Hy eq_refl Hok). reflexivity.
  - (* no Key token: the key is left out and a Value token follows *)
    destruct Hkt as [?|[Hkn Hyv]]; [discriminate|].
    apply map_eq_nil in Hmkk as ->. destruct kn; try discriminate. apply map_eq_nil in Hmk as ->. cbn [app] in Hv.
    destruct y as [spV ty]. cbn [snd] in Hyv. subst ty.
    vpeek Hv. eapply (emits_one _ pnull); reflexivity.
Qed.

Lemma bm_value vt vn : NodeSpec vn -> is_none vn || wf true true vn = true -> vt || is_none vn = true ->
  forall p (tvv tv : list token) y r st s k e tg kp,
  view p = mkv (tvv ++ tv ++ y :: r) st (s :: k) (ae_map e) (ae_next e) tg kp ->
  map snd tvv = flag vt TValue -> map snd tv = tokens_of vn ->
  tin (bm_after vt) (snd y) = true -> fits tg e (pre_events vn) ->
  emits (block_mapping_value p) (pre_events vn) (y :: r) SBlockMappingKey (s :: k) e tg kp.
Proof.
  intros Hvn Hw Hvt p tvv tv y r st s k e tg kp Hv Hmvv Hmv Hy Hok.
  rewrite block_mapping_value_if. destruct vt; cbn [flag bm_after] in Hmvv, Hy.
  - apply map_snd_cons in Hmvv as (spV & t3 & -> & Hmvv). apply map_eq_nil in Hmvv as ->. cbn [app] in Hv.
    vpeek Hv. cbn [tis snd].
    refine (child_node_or_empty vn true true Hvn _ _ _ tv y r st s k e tg kp Hw _ Hmv Hy eq_refl Hok). reflexivity.
  - (* no Value token: the value is left out *)
    apply map_eq_nil in Hmvv as ->. cbn [orb] in Hvt. destruct vn; try discriminate.
    apply map_eq_nil in Hmv as ->. cbn [app] in Hv. vpeek Hv.
    assert (E : tis TValue (snd y) = false) by (destruct (snd y); try discriminate; reflexivity).
    rewrite E. eapply (emits_one _ pnull); reflexivity.
Qed.

Lemma bm_entry en : ent_all NodeSpec en -> ent_wf (wf true true) en = true ->
  entry_ok (fun p => block_mapping_key p false) SBlockMappingKey (bm_after (fst (snd en)))
           (ent_toks tokens_of en) (ent_pre pre_events en).
Proof.
  destruct en as [[kt kn] [vt vn]]. intros [Hk Hvn] Hw p te y r st s k e tg kp Hv Hm Hy Hok.
  cbn [fst snd ent_wf ent_toks ent_pre] in *.
  apply andb_prop in Hw as [Hw Hwv]. apply andb_prop in Hw as [Hw Hwk]. apply andb_prop in Hw as [Hkt Hvt].
  apply map_eq_app in Hm as (tkk & t1 & -> & Hmkk & Hm).
  apply map_eq_app in Hm as (tk & t2 & -> & Hmk & Hm).
  apply map_eq_app in Hm as (tvv & tv & -> & Hmvv & Hmv).
  rewrite <- !app_assoc in Hv. apply fits_app in Hok as [Hokk Hokv].
  eapply (emits_app block_mapping_value);
    [exact sm_block_mapping_value | | intros p1 V1; exact (bm_value vt vn Hvn Hwv Hvt p1 tvv tv y r _ s k _ tg kp V1 Hmvv Hmv Hy Hokv)].
  (* the token behind the key: Value, or with the value left out what follows the entry *)
  destruct vt; cbn [flag] in Hmvv.
  - pose proof Hmvv as Hmvv'. apply map_snd_cons in Hmvv' as (spV & t3 & -> & _). cbn [app] in Hv |- *.
    refine (bm_key kt kn Hk Hwk p tkk tk _ _ st s k e tg kp _ Hv Hmkk Hmk eq_refl Hokk).
    destruct kt; [left; reflexivity|right]. apply andb_prop in Hkt as [Hkn _]. split; [exact Hkn|reflexivity].
  - pose proof Hmvv as Hmvv'. apply map_eq_nil in Hmvv' as ->. cbn [orb] in Hvt. destruct vn; try discriminate.
    pose proof Hmv as Hmv'. apply map_eq_nil in Hmv' as ->. cbn [app] in Hv |- *.
    refine (bm_key kt kn Hk Hwk p tkk tk y r st s k e tg kp _ Hv Hmkk Hmk _ Hokk).
    + left. destruct kt; [reflexivity|]. cbn [orb] in Hkt. apply andb_prop in Hkt as [_ ?]. discriminate.
    + destruct (snd y); try discriminate Hy; reflexivity.
Qed.

Lemma bm_linked ents w : forallb (ent_wf (wf true true)) ents = true -> adj_ok ents = true ->
  linked (ent_toks tokens_of) (fun en => bm_after (fst (snd en))) ents (TBlockEnd :: w).
Proof.
  induction ents as [|[[kt kn] [vt vn]] ents IH]; cbn [linked forallb]; intros Hw Hadj; [exact I|].
  apply andb_prop in Hw as [_ Hw]. destruct ents as [|[[kt' kn'] [vt' vn']] ents].
  - split; [|exact I]. cbn. exists TBlockEnd, w. destruct vt; auto.
  - cbn [adj_ok] in Hadj. apply andb_prop in Hadj as [Hvk Hadj]. split; [|exact (IH Hw Hadj)].
    cbn [forallb ent_wf] in Hw. cbn [flat_map ent_toks fst snd].
    destruct kt'; cbn [flag app]; [do 2 eexists; split; [reflexivity|]; destruct vt; reflexivity|].
    (* no Key token: the key is left out, a Value token stands first, and the entry before has its Value token *)
    rewrite orb_false_r in Hvk. subst vt.
    do 4 (apply andb_prop in Hw as [Hw _]). apply andb_prop in Hw as [Hkn ->]. destruct kn'; try discriminate.
    cbn. eauto.
Qed.

Lemma node_bmap pr ents : Forall (ent_all NodeSpec) ents -> NodeSpec (LBMap pr ents).
Proof.
  intros HF b i p ts x rest st0 s k e tg kp Hw Hv Hm Hf _ Hb Hn.
  cbn [wf] in Hw. apply andb_prop in Hw as [Hw Hadj]. apply andb_prop in Hw as [-> Hw].
  cbn [tokens_of] in Hm.
  apply map_eq_app in Hm as (tp & t2 & -> & Hmp & Hm).
  apply map_snd_cons in Hm as (spS & t3 & -> & Hm).
  apply map_eq_app in Hm as (tb & t4 & -> & Hmb & Hm).
  apply map_snd_cons in Hm as (spE & t5 & -> & Hm). apply map_eq_nil in Hm as ->.
  rewrite <- !app_assoc in Hv. cbn [app] in Hv. rewrite <- !app_assoc in Hv. cbn [app] in Hv.
  cbn [pre_events] in Hb |- *. destruct (fits_cons _ _ _ _ (conj Hb Hn)) as [Hb1 Hok].
  eapply emits_cons.
  - rewrite (parse_node_props pr p _ _ _ _ _ _ _ _ true i Hv Hmp eq_refl Hb1). reflexivity.
  - rewrite sm_block_mapping_first by reflexivity. erewrite bmk_first_view by reflexivity.
    apply (entries (ent_toks tokens_of) (ent_pre pre_events) (fun en => bm_after (fst (snd en))) _
                   SBlockMappingKey PMapEnd ents ((spE, TBlockEnd) :: x :: rest) (x :: rest) s k tg kp
                   sm_block_mapping_key) with (ts := tb) (st := SBlockMappingFirstKey).
    + exact (Forall_forallb _ _ _ _ bm_entry HF Hw).
    + exact (bm_linked ents _ Hw Hadj).
    + intros q st e' Vq. eapply emits_one; [unfold block_mapping_key; vpeek Vq; reflexivity | reflexivity].
    + reflexivity.
    + exact Hmb.
    + exact Hok.
Qed.

(* flow sequences *)

(* flow_sequence_entry behind the start token or the FlowEntry token *)
Definition fse_inner (p : parser) : sres :=
  do (t, p) <- peek p;
  let (sp, k) := t in
  if tis TFlowSequenceEnd k then do p <- pop_state p; Ok ((ESequenceEnd, sp), skip p)
  else if tis TKey k then Ok ((EMappingStart 0 None, sp), skip (set_state p SFlowSequenceEntryMappingKey))
  else parse_node (push_state p SFlowSequenceEntry) false false.

Lemma fse_next p spF u st k a n tg kp :
  view p = mkv ((spF, TFlowEntry) :: u) st k a n tg kp ->
  flow_sequence_entry p false = fse_inner (mkp u None st k a n tg kp).
Proof. intros Hv. rewrite flow_sequence_entry_if. cbn iota. vpeek Hv. reflexivity. Qed.

(* the first entry is parsed as if a FlowEntry token stood before it *)
Lemma fse_first p t0 spx x u st k a n tg kp spF :
  view p = mkv (t0 :: (spx, x) :: u) st k a n tg kp -> tis TFlowSequenceEnd x = false ->
  flow_sequence_entry p true = flow_sequence_entry (mkp ((spF, TFlowEntry) :: (spx, x) :: u) None st k a n tg kp) false.
Proof.
  intros Hv Hx. erewrite (fse_next _ spF) by reflexivity.
  rewrite flow_sequence_entry_if. cbn iota. vpeek Hv. cbn iota beta.
  erewrite peek_view by reflexivity. cbn iota beta. rewrite Hx. reflexivity.
Qed.

(* the value of a single pair; the state it ends in remembers where the token behind the key (or the Value token) ends *)
Lemma fsem_value vt vn : NodeSpec vn -> is_none vn || wf false false vn = true -> vt || is_none vn = true ->
  forall p (tvv tv : list token) y r t u st s k e tg kp,
  view p = mkv (tvv ++ tv ++ y :: r) st (s :: k) (ae_map e) (ae_next e) tg kp ->
  map snd tvv = flag vt TValue -> map snd tv = tokens_of vn -> tv ++ y :: r = t :: u ->
  tin [TFlowEntry; TFlowSequenceEnd] (snd y) = true -> fits tg e (pre_events vn) ->
  emits (flow_sequence_entry_mapping_value p) (pre_events vn) (y :: r)
        (SFlowSequenceEntryMappingEnd (sp_end (fst t))) (s :: k) e tg kp.
Proof.
  intros Hvn Hw Hvt p tvv tv y r t u st s k e tg kp Hv Hmvv Hmv Et Hy Hok.
  rewrite flow_sequence_entry_mapping_value_if. destruct vt; cbn [flag] in Hmvv.
  - apply map_snd_cons in Hmvv as (spV & t3 & -> & Hmvv). apply map_eq_nil in Hmvv as ->. cbn [app] in Hv.
    vpeek Hv. cbn [tis snd]. unfold token in *.
    refine (child_step vn false false Hvn _ [TFlowEntry; TFlowSequenceEnd] _ tv y r t u _ _ _ _ s k e tg kp
                       Hw Hmv Et _ _ _ Hy eq_refl Hok).
    + cbn [skip p_toks mkp set_tok]. cbn [peek p_token]. rewrite Et. reflexivity.
    + reflexivity.
    + reflexivity.
  - (* no Value token: the value is left out *)
    apply map_eq_nil in Hmvv as ->. cbn [orb] in Hvt. destruct vn; try discriminate.
    apply map_eq_nil in Hmv as ->. cbn [app] in Hv, Et. injection Et as <- <-. vpeek Hv.
    assert (E : tis TValue (snd y) = false) by (destruct (snd y); try discriminate; reflexivity).
    rewrite E. eapply (emits_one _ pnull); reflexivity.
Qed.

Lemma fs_inner en : fsent_all NodeSpec en -> fsent_wf (wf false false) en = true ->
  entry_ok fse_inner SFlowSequenceEntry [TFlowEntry; TFlowSequenceEnd] (fsent_toks tokens_of en) (fsent_pre pre_events en).
Proof.
  intros Hx Hw q te y r st s k e tg kp Hv Hm Hy Hok.
  destruct en as [nd | [kn [vt vn]]]; cbn [fsent_all fsent_wf fsent_toks fsent_pre] in *.
  - (* a node *)
    destruct (after_in false [TFlowEntry; TFlowSequenceEnd] _ eq_refl Hy) as (Hfy & _). destruct Hok as [Hb Hn].
    destruct (first_tok_spanned _ _ _ _ Hw Hm) as (sp0 & y0 & tx' & -> & [S0 | [? _]]); [|discriminate].
    cbn [app] in Hv. unfold fse_inner. vpeek Hv.
    rewrite (start_not_tis TFlowSequenceEnd _ eq_refl eq_refl S0), (start_not_tis TKey _ eq_refl eq_refl S0).
    refine (Hx false false _ ((sp0, y0) :: tx') y r st SFlowSequenceEntry (s :: k) e tg kp Hw _ Hm Hfy _ Hb Hn);
      [reflexivity | discriminate].
  - (* Key key [Value value]: a single pair the scanner did not wrap *)
    destruct Hx as [Hk Hvn].
    apply andb_prop in Hw as [Hw Hwv]. apply andb_prop in Hw as [Hwk Hvt].
    apply map_snd_cons in Hm as (spK & t1 & -> & Hm).
    apply map_eq_app in Hm as (tk & t2 & -> & Hmk & Hm).
    apply map_eq_app in Hm as (tvv & tv & -> & Hmvv & Hmv).
    cbn [app] in Hv. rewrite <- !app_assoc in Hv.
    apply fits_cons in Hok as [_ Hok]. rewrite app_assoc in Hok |- *.
    apply fits_app in Hok as [Hok _]. apply fits_app in Hok as [Hokk Hokv].
    destruct (app_cons_head tv y r) as (t & u & Et).
    eapply emits_cons; [unfold fse_inner; vpeek Hv; reflexivity|].
    eapply emits_app; [exact (fun q0 => sm_fsem_end q0 (sp_end (fst t))) | |].
    eapply (emits_app _ _ _ _ (tvv ++ tv ++ y :: r)); [exact sm_fsem_value | |].
    + rewrite sm_fsem_key by reflexivity. rewrite flow_sequence_entry_mapping_key_if.
      (* the token behind the key: Value, or with the value left out what follows the entry *)
      destruct vt; cbn [flag] in Hmvv.
      * pose proof Hmvv as Hmvv'. apply map_snd_cons in Hmvv' as (spV & t3 & -> & _). cbn [app].
        refine (child_node_or_empty kn false false Hk [TValue; TFlowEntry; TFlowSequenceEnd] _ _ tk _ _ _ s k _ tg kp
                                    Hwk _ Hmk _ eq_refl Hokk); reflexivity.
      * pose proof Hmvv as Hmvv'. apply map_eq_nil in Hmvv' as ->. cbn [orb] in Hvt. destruct vn; try discriminate.
        pose proof Hmv as Hmv'. apply map_eq_nil in Hmv' as ->. cbn [app].
        refine (child_node_or_empty kn false false Hk [TValue; TFlowEntry; TFlowSequenceEnd] _ _ tk y r _ s k _ tg kp
                                    Hwk _ Hmk _ eq_refl Hokk); [reflexivity|].
        destruct (snd y); try discriminate Hy; reflexivity.
    + intros p2 V2. exact (fsem_value vt vn Hvn Hwv Hvt p2 tvv tv y r t u _ s k _ tg kp V2 Hmvv Hmv Et Hy Hokv).
    + (* the end of the pair: only the state changes *)
      intros p3 V3. eapply (emits_one _ PMapEnd); [reflexivity|]. apply (view_set_state _ _ _ _ _ _ _ _ _ V3).
Qed.

Lemma fs_entry en : fsent_all NodeSpec en -> fsent_wf (wf false false) en = true ->
  entry_ok (fun p => flow_sequence_entry p false) SFlowSequenceEntry [TFlowEntry; TFlowSequenceEnd]
           (TFlowEntry :: fsent_toks tokens_of en) (fsent_pre pre_events en).
Proof.
  intros Hx Hw p te y r st s k e tg kp Hv Hm Hy Hok.
  apply map_snd_cons in Hm as (spF & te' & -> & Hm). cbn [app] in Hv.
  rewrite (fse_next _ _ _ _ _ _ _ _ _ Hv).
  refine (fs_inner en Hx Hw _ te' y r st s k e tg kp _ Hm Hy Hok). reflexivity.
Qed.

Lemma fs_close trail (ttr : list token) spE u p st s k e tg kp :
  view p = mkv (ttr ++ (spE, TFlowSequenceEnd) :: u) st (s :: k) (ae_map e) (ae_next e) tg kp ->
  map snd ttr = flag trail TFlowEntry ->
  emits (flow_sequence_entry p false) [PSeqEnd] u s k e tg kp.
Proof.
  intros Hv Ht. destruct trail; cbn [flag] in Ht.
  - apply map_snd_cons in Ht as (spF & t2 & -> & Ht). apply map_eq_nil in Ht as ->. cbn [app] in Hv.
    rewrite (fse_next _ _ _ _ _ _ _ _ _ Hv). eapply (emits_one _ PSeqEnd); reflexivity.
  - apply map_eq_nil in Ht as ->. cbn [app] in Hv.
    eapply (emits_one _ PSeqEnd); [rewrite flow_sequence_entry_if; cbn iota; vpeek Hv|]; reflexivity.
Qed.

Lemma flat_map_sep {A} (f : A -> list tok) l :
  flat_map (fun y => TFlowEntry :: y) (map f l) = flat_map (fun en => TFlowEntry :: f en) l.
Proof. induction l as [|x l IH]; cbn; [reflexivity|]. rewrite IH. reflexivity. Qed.

(* what follows the entries of a flow collection: a trailing FlowEntry or the end token c *)
Lemma flow_tail trail c w : exists y v, flag trail TFlowEntry ++ c :: w = y :: v /\ tin [TFlowEntry; c] y = true.
Proof. destruct trail; cbn; do 2 eexists; (split; [reflexivity|]); rewrite ?tis_refl, ?orb_true_r; reflexivity. Qed.

Lemma fs_first en : fsent_wf (wf false false) en = true ->
  exists y0 v, fsent_toks tokens_of en = y0 :: v /\ tis TFlowSequenceEnd y0 = false.
Proof.
  destruct en as [nd | [kn [vt vn]]]; cbn [fsent_wf fsent_toks]; intros Hw; [|do 2 eexists; split; reflexivity].
  destruct (first_tok _ _ _ Hw) as (y0 & v & -> & [S0 | [? _]]); [|discriminate].
  do 2 eexists. split; [reflexivity|]. exact (start_not_tis TFlowSequenceEnd _ eq_refl eq_refl S0).
Qed.

Lemma node_fseq pr ents trail : Forall (fsent_all NodeSpec) ents -> NodeSpec (LFSeq pr ents trail).
Proof.
  intros HF b i p ts x rest st0 s k e tg kp Hw Hv Hm Hf _ Hb Hn.
  cbn [wf] in Hw. apply andb_prop in Hw as [Hw Htr].
  cbn [tokens_of] in Hm.
  apply map_eq_app in Hm as (tp & t2 & -> & Hmp & Hm).
  apply map_snd_cons in Hm as (spS & t3 & -> & Hm).
  apply map_eq_app in Hm as (tb & t4 & -> & Hmb & Hm).
  apply map_eq_app in Hm as (ttr & t5 & -> & Hmt & Hm).
  apply map_snd_cons in Hm as (spE & t6 & -> & Hm). apply map_eq_nil in Hm as ->.
  rewrite <- !app_assoc in Hv. cbn [app] in Hv. rewrite <- !app_assoc in Hv. cbn [app] in Hv.
  cbn [pre_events] in Hb |- *. destruct (fits_cons _ _ _ _ (conj Hb Hn)) as [Hb1 Hok].
  eapply emits_cons.
  - rewrite (parse_node_props pr p _ _ _ _ _ _ _ _ b i Hv Hmp eq_refl Hb1). reflexivity.
  - rewrite sm_flow_sequence_first by reflexivity. destruct ents as [|en ents].
    + cbn [map fsep] in Hmb. apply map_eq_nil in Hmb as ->. cbn [negb nonempty orb] in Htr.
      destruct trail; [discriminate|]. apply map_eq_nil in Hmt as ->.
      eapply (emits_one _ PSeqEnd); reflexivity.
    + cbn [map fsep] in Hmb. rewrite flat_map_sep in Hmb.
      destruct (fs_first en) as (y0 & v & E0 & Hy0); [cbn [forallb] in Hw; apply andb_prop in Hw as [Hw _]; exact Hw|].
      pose proof Hmb as Hmb'. rewrite E0 in Hmb'. apply map_snd_cons in Hmb' as (sp0 & tb' & Etb & _).
      rewrite Etb. erewrite (fse_first _ _ _ _ _ _ _ _ _ _ _ spS); [|reflexivity|exact Hy0].
      apply (entries (fun en => TFlowEntry :: fsent_toks tokens_of en) (fsent_pre pre_events)
                     (fun _ => [TFlowEntry; TFlowSequenceEnd]) _ SFlowSequenceEntry PSeqEnd (en :: ents)
                     (ttr ++ (spE, TFlowSequenceEnd) :: x :: rest) (x :: rest) s k tg kp sm_flow_sequence_entry)
        with (ts := (spS, TFlowEntry) :: tb) (st := SFlowSequenceFirstEntry).
      * exact (Forall_forallb _ _ _ _ fs_entry HF Hw).
      * apply (linked_sep _ _ TFlowEntry); [eauto | reflexivity |]. rewrite map_app, Hmt. apply flow_tail.
      * intros q st e' Vq. exact (fs_close trail ttr spE _ q st s k e' tg kp Vq Hmt).
      * rewrite Etb. reflexivity.
      * cbn [map flat_map snd]. rewrite Hmb. reflexivity.
      * exact Hok.
Qed.

(* flow mappings *)

(* flow_mapping_key behind the start token (at sp) or the FlowEntry token (at sp) *)
Definition fmk_inner (p : parser) (sp : span) : sres :=
  do (t, p) <- peek p;
  let (sp2, k) := t in
  if tis TKey k then node_or_empty [TValue; TFlowEntry; TFlowMappingEnd] (skip p) SFlowMappingValue false false
  else if tis TValue k then Ok ((empty_scalar, sp2), set_state p SFlowMappingValue)
  else if tis TFlowMappingEnd k then do p <- pop_state p; Ok ((EMappingEnd, sp), skip p)
  else parse_node (push_state p SFlowMappingEmptyValue) false false.

Lemma fmk_next p spF u st k a n tg kp :
  view p = mkv ((spF, TFlowEntry) :: u) st k a n tg kp ->
  flow_mapping_key p false = fmk_inner (mkp u None st k a n tg kp) spF.
Proof.
  intros Hv. rewrite flow_mapping_key_if. cbn iota. vpeek Hv. cbn [tis].
  erewrite peek_view by reflexivity. reflexivity.
Qed.

(* as for sequences; the span handed to fmk_inner only matters at FlowMappingEnd *)
Lemma fmk_first p t0 spx x u st k a n tg kp spF :
  view p = mkv (t0 :: (spx, x) :: u) st k a n tg kp -> tis TFlowMappingEnd x = false ->
  flow_mapping_key p true = flow_mapping_key (mkp ((spF, TFlowEntry) :: (spx, x) :: u) None st k a n tg kp) false.
Proof.
  intros Hv Hx. erewrite (fmk_next _ spF) by reflexivity.
  rewrite flow_mapping_key_if. cbn iota. vpeek Hv. cbn iota beta.
  erewrite peek_view by reflexivity. cbn iota beta. rewrite Hx. cbn iota beta.
  unfold fmk_inner. erewrite !peek_view by reflexivity. cbn iota beta. rewrite Hx. reflexivity.
Qed.

Lemma fm_value vt vn : NodeSpec vn -> is_none vn || wf false false vn = true -> vt || is_none vn = true ->
  forall p (tvv tv : list token) y r st s k e tg kp,
  view p = mkv (tvv ++ tv ++ y :: r) st (s :: k) (ae_map e) (ae_next e) tg kp ->
  map snd tvv = flag vt TValue -> map snd tv = tokens_of vn ->
  tin [TFlowEntry; TFlowMappingEnd] (snd y) = true -> fits tg e (pre_events vn) ->
  emits (flow_mapping_value p false) (pre_events vn) (y :: r) SFlowMappingKey (s :: k) e tg kp.
Proof.
  intros Hvn Hw Hvt p tvv tv y r st s k e tg kp Hv Hmvv Hmv Hy Hok.
  rewrite flow_mapping_value_if. destruct vt; cbn [flag] in Hmvv.
  - apply map_snd_cons in Hmvv as (spV & t3 & -> & Hmvv). apply map_eq_nil in Hmvv as ->. cbn [app] in Hv.
    vpeek Hv. cbn [tis snd]. destruct (app_cons_head tv y r) as (t & u & Et).
    refine (child_step vn false false Hvn _ [TFlowEntry; TFlowMappingEnd] _ tv y r t u _ _ _ _ s k e tg kp
                       Hw Hmv Et _ _ _ Hy eq_refl Hok).
    + cbn [skip p_toks mkp set_tok]. cbn [peek p_token]. unfold token in *. rewrite Et. reflexivity.
    + reflexivity.
    + reflexivity.
  - (* no Value token: the value is left out *)
    apply map_eq_nil in Hmvv as ->. cbn [orb] in Hvt. destruct vn; try discriminate.
    apply map_eq_nil in Hmv as ->. cbn [app] in Hv. vpeek Hv.
    assert (E : tis TValue (snd y) = false) by (destruct (snd y); try discriminate; reflexivity).
    rewrite E. eapply (emits_one _ pnull); reflexivity.
Qed.

Lemma fm_inner en sp : ent_all NodeSpec en -> fment_wf (wf false false) en = true ->
  entry_ok (fun q => fmk_inner q sp) SFlowMappingKey [TFlowEntry; TFlowMappingEnd]
           (ent_toks tokens_of en) (ent_pre pre_events en).
Proof.
  destruct en as [[kt kn] [vt vn]]. intros [Hk Hvn] Hw q te y r st s k e tg kp Hv Hm Hy Hok.
  cbn [fst snd fment_wf ent_toks ent_pre] in *.
  apply andb_prop in Hw as [Hw Hkt]. apply andb_prop in Hw as [Hw Hwv]. apply andb_prop in Hw as [Hvt Hwk].
  apply map_eq_app in Hm as (tkk & t1 & -> & Hmkk & Hm).
  apply map_eq_app in Hm as (tk & t2 & -> & Hmk & Hm).
  apply map_eq_app in Hm as (tvv & tv & -> & Hmvv & Hmv).
  rewrite <- !app_assoc in Hv. apply fits_app in Hok as [Hokk Hokv].
  pose proof (fun p1 V1 => fm_value vt vn Hvn Hwv Hvt p1 tvv tv y r SFlowMappingValue s k _ tg kp V1 Hmvv Hmv Hy Hokv) as Hval.
  unfold fmk_inner. destruct kt; cbn [flag] in Hmkk.
  - apply map_snd_cons in Hmkk as (spK & t3 & -> & Hmkk). apply map_eq_nil in Hmkk as ->. cbn [app] in Hv.
    eapply emits_app; [exact sm_flow_mapping_value | | exact Hval].
    vpeek Hv. cbn [tis].
    (* the token behind the key: Value, or with the value left out what follows the entry *)
    destruct vt; cbn [flag] in Hmvv.
    + pose proof Hmvv as Hmvv'. apply map_snd_cons in Hmvv' as (spV & t3 & -> & _). cbn [app].
      refine (child_node_or_empty kn false false Hk [TValue; TFlowEntry; TFlowMappingEnd] _ _ tk _ _ _ s k e tg kp
                                  Hwk _ Hmk _ eq_refl Hokk); reflexivity.
    + pose proof Hmvv as Hmvv'. apply map_eq_nil in Hmvv' as ->. cbn [orb] in Hvt. destruct vn; try discriminate.
      pose proof Hmv as Hmv'. apply map_eq_nil in Hmv' as ->. cbn [app].
      refine (child_node_or_empty kn false false Hk [TValue; TFlowEntry; TFlowMappingEnd] _ _ tk y r _ s k e tg kp
                                  Hwk _ Hmk _ eq_refl Hokk); [reflexivity|].
      destruct (snd y); try discriminate Hy; reflexivity.
  - apply map_eq_nil in Hmkk as ->. cbn [app orb] in Hv, Hkt. destruct vt; cbn [flag] in Hmvv.
    + (* Value token without a key *)
      destruct kn; try discriminate. apply map_eq_nil in Hmk as ->. cbn [app] in Hv.
      eapply emits_app; [exact sm_flow_mapping_value | | exact Hval].
      pose proof Hmvv as Hmvv'. apply map_snd_cons in Hmvv' as (spV & t3 & -> & _). cbn [app] in Hv |- *.
      vpeek Hv. eapply (emits_one _ pnull); reflexivity.
    + (* a bare node: key without value *)
      destruct (is_none kn) eqn:EN; [discriminate|]. cbn [orb] in Hwk, Hvt. destruct vn; try discriminate.
      apply map_eq_nil in Hmvv as ->. apply map_eq_nil in Hmv as ->. cbn [app] in Hv.
      destruct (after_in false [TFlowEntry; TFlowMappingEnd] _ eq_refl Hy) as (Hfy & _). destruct Hokk as [Hb Hn].
      eapply emits_app; [exact sm_flow_mapping_empty_value | |].
      * destruct (first_tok_spanned _ _ _ _ Hwk Hmk) as (sp0 & y0 & tk' & -> & [S0 | [? _]]); [|discriminate].
        cbn [app] in Hv. vpeek Hv.
        rewrite (start_not_tis TKey _ eq_refl eq_refl S0), (start_not_tis TValue _ eq_refl eq_refl S0),
          (start_not_tis TFlowMappingEnd _ eq_refl eq_refl S0).
        refine (Hk false false _ ((sp0, y0) :: tk') y r st SFlowMappingEmptyValue (s :: k) e tg kp Hwk _ Hmk Hfy _ Hb Hn);
          [reflexivity | discriminate].
      * intros p1 V1. eapply (emits_one _ pnull); [unfold flow_mapping_value; vpeek V1|]; reflexivity.
Qed.

Lemma fm_entry en : ent_all NodeSpec en -> fment_wf (wf false false) en = true ->
  entry_ok (fun p => flow_mapping_key p false) SFlowMappingKey [TFlowEntry; TFlowMappingEnd]
           (TFlowEntry :: ent_toks tokens_of en) (ent_pre pre_events en).
Proof.
  intros Hx Hw p te y r st s k e tg kp Hv Hm Hy Hok.
  apply map_snd_cons in Hm as (spF & te' & -> & Hm). cbn [app] in Hv.
  rewrite (fmk_next _ _ _ _ _ _ _ _ _ Hv).
  refine (fm_inner en spF Hx Hw _ te' y r st s k e tg kp _ Hm Hy Hok). reflexivity.
Qed.

Lemma fm_close trail (ttr : list token) spE u p st s k e tg kp :
  view p = mkv (ttr ++ (spE, TFlowMappingEnd) :: u) st (s :: k) (ae_map e) (ae_next e) tg kp ->
  map snd ttr = flag trail TFlowEntry ->
  emits (flow_mapping_key p false) [PMapEnd] u s k e tg kp.
Proof.
  intros Hv Ht. destruct trail; cbn [flag] in Ht.
  - apply map_snd_cons in Ht as (spF & t2 & -> & Ht). apply map_eq_nil in Ht as ->. cbn [app] in Hv.
    rewrite (fmk_next _ _ _ _ _ _ _ _ _ Hv). eapply (emits_one _ PMapEnd); reflexivity.
  - apply map_eq_nil in Ht as ->. cbn [app] in Hv.
    eapply (emits_one _ PMapEnd); [rewrite flow_mapping_key_if; cbn iota; vpeek Hv|]; reflexivity.
Qed.

Lemma fm_first en : fment_wf (wf false false) en = true ->
  exists y0 v, ent_toks tokens_of en = y0 :: v /\ tis TFlowMappingEnd y0 = false.
Proof.
  destruct en as [[kt kn] [vt vn]]. cbn [fment_wf ent_toks]. intros Hw.
  apply andb_prop in Hw as [Hw Hkt]. apply andb_prop in Hw as [Hw Hwv]. apply andb_prop in Hw as [Hvt Hwk].
  destruct kt; cbn [flag app orb] in *; [do 2 eexists; split; reflexivity|].
  destruct vt.
  - destruct kn; try discriminate. do 2 eexists; split; reflexivity.
  - destruct (is_none kn) eqn:EN; [discriminate|]. cbn [orb] in Hwk.
    destruct (first_tok _ _ _ Hwk) as (y0 & v & -> & [S0 | [? _]]); [|discriminate].
    do 2 eexists. split; [reflexivity|]. exact (start_not_tis TFlowMappingEnd _ eq_refl eq_refl S0).
Qed.

Lemma node_fmap pr ents trail : Forall (ent_all NodeSpec) ents -> NodeSpec (LFMap pr ents trail).
Proof.
  intros HF b i p ts x rest st0 s k e tg kp Hw Hv Hm Hf _ Hb Hn.
  cbn [wf] in Hw. apply andb_prop in Hw as [Hw Htr].
  cbn [tokens_of] in Hm.
  apply map_eq_app in Hm as (tp & t2 & -> & Hmp & Hm).
  apply map_snd_cons in Hm as (spS & t3 & -> & Hm).
  apply map_eq_app in Hm as (tb & t4 & -> & Hmb & Hm).
  apply map_eq_app in Hm as (ttr & t5 & -> & Hmt & Hm).
  apply map_snd_cons in Hm as (spE & t6 & -> & Hm). apply map_eq_nil in Hm as ->.
  rewrite <- !app_assoc in Hv. cbn [app] in Hv. rewrite <- !app_assoc in Hv. cbn [app] in Hv.
  cbn [pre_events] in Hb |- *. destruct (fits_cons _ _ _ _ (conj Hb Hn)) as [Hb1 Hok].
  eapply emits_cons.
  - rewrite (parse_node_props pr p _ _ _ _ _ _ _ _ b i Hv Hmp eq_refl Hb1). reflexivity.
  - rewrite sm_flow_mapping_first by reflexivity. destruct ents as [|en ents].
    + cbn [map fsep] in Hmb. apply map_eq_nil in Hmb as ->. cbn [negb nonempty orb] in Htr.
      destruct trail; [discriminate|]. apply map_eq_nil in Hmt as ->.
      eapply (emits_one _ PMapEnd); reflexivity.
    + cbn [map fsep] in Hmb. rewrite flat_map_sep in Hmb.
      destruct (fm_first en) as (y0 & v & E0 & Hy0); [cbn [forallb] in Hw; apply andb_prop in Hw as [Hw _]; exact Hw|].
      pose proof Hmb as Hmb'. rewrite E0 in Hmb'. apply map_snd_cons in Hmb' as (sp0 & tb' & Etb & _).
      rewrite Etb. erewrite (fmk_first _ _ _ _ _ _ _ _ _ _ _ spS); [|reflexivity|exact Hy0].
      apply (entries (fun en => TFlowEntry :: ent_toks tokens_of en) (ent_pre pre_events)
                     (fun _ => [TFlowEntry; TFlowMappingEnd]) _ SFlowMappingKey PMapEnd (en :: ents)
                     (ttr ++ (spE, TFlowMappingEnd) :: x :: rest) (x :: rest) s k tg kp sm_flow_mapping_key)
        with (ts := (spS, TFlowEntry) :: tb) (st := SFlowMappingFirstKey).
      * exact (Forall_forallb _ _ _ _ fm_entry HF Hw).
      * apply (linked_sep _ _ TFlowEntry); [eauto | reflexivity |]. rewrite map_app, Hmt. apply flow_tail.
      * intros q st e' Vq. exact (fm_close trail ttr spE _ q st s k e' tg kp Vq Hmt).
      * rewrite Etb. reflexivity.
      * cbn [map flat_map snd]. rewrite Hmb. reflexivity.
      * exact Hok.
Qed.

(* the induction on trees *)
Section ltree_ind2.
  Variable P : ltree -> Prop.
  Hypothesis HS : forall pr st v, P (LScalar pr st v).
  Hypothesis HA : forall n, P (LAlias n).
  Hypothesis HN : P LNone.
  Hypothesis HP : forall pr, P (LProps pr).
  Hypothesis HBS : forall pr items, Forall P items -> P (LBSeq pr items).
  Hypothesis HIS : forall pr items, Forall P items -> P (LISeq pr items).
  Hypothesis HBM : forall pr ents, Forall (ent_all P) ents -> P (LBMap pr ents).
  Hypothesis HFS : forall pr ents tr, Forall (fsent_all P) ents -> P (LFSeq pr ents tr).
  Hypothesis HFM : forall pr ents tr, Forall (ent_all P) ents -> P (LFMap pr ents tr).

  Fixpoint ltree_ind2 (t : ltree) : P t :=
    let nodes := fix go (l : list ltree) : Forall P l :=
      match l with [] => Forall_nil _ | x :: r => Forall_cons _ (ltree_ind2 x) (go r) end in
    let ents := fix go (l : list (entry ltree)) : Forall (ent_all P) l :=
      match l with
      | [] => Forall_nil _
      | (kt, kn, (vt, vn)) :: r => Forall_cons (kt, kn, (vt, vn)) (conj (ltree_ind2 kn) (ltree_ind2 vn)) (go r)
      end in
    let fsents := fix go (l : list (ltree + (ltree * (bool * ltree)))) : Forall (fsent_all P) l :=
      match l with
      | [] => Forall_nil _
      | inl n :: r => Forall_cons (inl n) (ltree_ind2 n) (go r)
      | inr (kn, (vt, vn)) :: r => Forall_cons (inr (kn, (vt, vn))) (conj (ltree_ind2 kn) (ltree_ind2 vn)) (go r)
      end in
    match t with
    | LScalar pr st v => HS pr st v
    | LAlias n => HA n
    | LNone => HN
    | LProps pr => HP pr
    | LBSeq pr items => HBS pr items (nodes items)
    | LISeq pr items => HIS pr items (nodes items)
    | LBMap pr l => HBM pr l (ents l)
    | LFSeq pr l tr => HFS pr l tr (fsents l)
    | LFMap pr l tr => HFM pr l tr (ents l)
    end.
End ltree_ind2.

Theorem node_spec : forall t, NodeSpec t.
Proof.
  apply ltree_ind2.
  - exact node_scalar.
  - exact node_alias.
  - exact node_none.
  - exact node_props_only.
  - exact node_bseq.
  - exact node_iseq.
  - exact node_bmap.
  - exact node_fseq.
  - exact node_fmap.
Qed.

(* documents: directives, '---', the root node, '...' *)
Definition init_p (toks : list token) (keep : bool) : parser := mkp toks None SStreamStart [] [] 1%N [] keep.

Lemma assoc_set_fresh {B} k (v : B) l : assoc k l = None -> assoc_set k v l = l ++ [(k, v)].
Proof.
  induction l as [|[a b] l IH]; cbn [assoc assoc_set app]; [reflexivity|].
  destruct (str_eqb k a); [discriminate|]. intros H. rewrite (IH H). reflexivity.
Qed.

Lemma dir_tags_ver a b r : dir_tags (DVersion a b :: r) = dir_tags r.
Proof. reflexivity. Qed.
Lemma dir_tags_tag h p r : dir_tags (DTag h p :: r) = (h, p) :: dir_tags r.
Proof. reflexivity. Qed.

(* the fuel of the two token loops is taken from the length of the token list *)
Lemma view_len p u s k a n tg kp : view p = mkv u s k a n tg kp -> (length u <= S (length (p_toks p)))%nat.
Proof.
  unfold view, upcoming. intros H. inversion H as [[Hu Hs Hk Ha Hn Ht Hkp]]. clear H.
  destruct (p_token p); cbn [length]; lia.
Qed.

Definition is_dir (x : tok) : bool := match x with TVersionDirective _ _ | TTagDirective _ _ => true | _ => false end.
Definition all_ends (le : list token) : Prop := Forall (fun t => snd t = TDocumentEnd) le.

Lemma skip_ends (le : list token) : forall p x rest st k a n tg kp fuel,
  view p = mkv (le ++ x :: rest) st k a n tg kp ->
  all_ends le -> snd x <> TDocumentEnd -> (length le < fuel)%nat ->
  exists p', skip_document_ends fuel p = Ok p' /\ view p' = mkv (x :: rest) st k a n tg kp.
Proof.
  induction le as [|[sp0 t0] le IH]; intros p x rest st k a n tg kp fuel Hv Hle Hx Hf;
    (destruct fuel as [|fuel]; [cbn in Hf; lia|]); cbn [skip_document_ends app] in *.
  - vpeek Hv. destruct x as [sx tx]. cbn [snd] in Hx.
    destruct tx; try congruence; eexists; (split; [reflexivity|reflexivity]).
  - inversion Hle as [|? ? H0 Hle']; subst. cbn [snd] in H0. subst t0. vpeek Hv.
    apply (IH (skip (mkp (le ++ x :: rest) (Some (sp0, TDocumentEnd)) st k a n tg kp)) x rest st k a n tg kp fuel eq_refl Hle' Hx).
    cbn in Hf. lia.
Qed.

Lemma proc_dirs dirs : forall p (td : list token) x rest st k a n tg kp ver seen tags fuel,
  view p = mkv (td ++ x :: rest) st k a n tg kp ->
  map snd td = map dir_tok dirs ->
  dirs_ok seen ver dirs = true ->
  (forall h, has_key h tags = existsb (str_eqb h) seen) ->
  is_dir (snd x) = false -> (length dirs < fuel)%nat ->
  exists p', process_directives fuel p ver tags = Ok p' /\
     view p' = mkv (x :: rest) st k a n (extend_tags tg (tags ++ dir_tags dirs)) kp.
Proof.
  induction dirs as [|d r IH]; intros p td x rest st k a n tg kp ver seen tags fuel Hv Hm Hok Hseen Hx Hf;
    (destruct fuel as [|fuel]; [cbn in Hf; lia|]); cbn [process_directives map dirs_ok] in *.
  - change (dir_tags []) with (@nil (str * str)). apply map_eq_nil in Hm as ->. cbn [app] in Hv. vpeek Hv. rewrite app_nil_r.
    destruct x as [sx tx]. cbn [snd] in Hx. destruct tx; try discriminate; eexists; (split; reflexivity).
  - apply map_snd_cons in Hm as (sp0 & td' & -> & Hm). cbn [app] in Hv. vpeek Hv.
    destruct d as [va vb|h pre]; cbn [dir_tok].
    + apply andb_prop in Hok as [Hver Hok]. destruct ver; [discriminate|]. cbn [negb].
      rewrite dir_tags_ver.
      apply (IH (skip (mkp (td' ++ x :: rest) (Some (sp0, TVersionDirective va vb)) st k a n tg kp)) td' x rest st k a n tg kp
                true seen tags fuel eq_refl Hm Hok Hseen Hx). cbn in Hf. lia.
    + apply andb_prop in Hok as [Hfresh Hok].
      assert (Hk : has_key h tags = false) by (rewrite Hseen; destruct (existsb (str_eqb h) seen); [discriminate|reflexivity]).
      rewrite Hk, andb_false_r.
      assert (Hnone : assoc h tags = None) by (unfold has_key in Hk; destruct (assoc h tags); [discriminate|reflexivity]).
      rewrite (assoc_set_fresh h pre tags Hnone).
      destruct (IH (skip (mkp (td' ++ x :: rest) (Some (sp0, TTagDirective h pre)) st k a n tg kp)) td' x rest st k a n tg kp
                ver (h :: seen) (tags ++ [(h, pre)]) fuel eq_refl Hm Hok) as (p' & E & V); [| exact Hx | cbn in Hf; lia |].
      * intros h'. unfold has_key. rewrite assoc_app. cbn [assoc existsb].
        specialize (Hseen h'). unfold has_key in Hseen. destruct (assoc h' tags).
        -- rewrite <- Hseen. rewrite orb_true_r. reflexivity.
        -- rewrite <- Hseen. rewrite orb_false_r. destruct (str_eqb h' h); reflexivity.
      * exists p'. split; [exact E|]. rewrite V, dir_tags_tag, <- app_assoc. reflexivity.
Qed.

Lemma dirs_first (td tds : list token) dirs u :
  map snd td = map dir_tok dirs -> map snd tds = flag true TDocumentStart ->
  exists t0 r0, td ++ tds ++ u = t0 :: r0 /\ (is_dir (snd t0) = true \/ snd t0 = TDocumentStart).
Proof.
  intros Hm Hs. destruct dirs as [|d r]; cbn [map] in Hm.
  - apply map_eq_nil in Hm as ->. cbn in Hs. apply map_snd_cons in Hs as (sp & t2 & -> & _). cbn. eauto.
  - apply map_snd_cons in Hm as (sp & t2 & -> & _). cbn. do 2 eexists. split; [reflexivity|]. left. destruct d; reflexivity.
Qed.

Lemma doc_open_gen closed dirs start (le td tds u : list token) p a n tg kp :
  view p = mkv (le ++ td ++ tds ++ u) (between closed) [] a n tg kp ->
  all_ends le ->
  map snd td = map dir_tok dirs -> map snd tds = flag start TDocumentStart ->
  dirs_ok [] false dirs = true ->
  (negb (nonempty dirs) || (closed && start)) = true -> (start || closed) = true ->
  (start = true \/ exists sy y u', u = (sy, y) :: u' /\ is_start y = true) ->
  exists p1, steps p [EDocumentStart start] p1 /\
     view p1 = mkv u (doc_state start) [SDocumentEnd] a n (extend_tags tg (dir_tags dirs)) kp.
Proof.
  intros Hv Hle Hmd Hms Hok Hd Hsc Hu.
  destruct start.
  - (* '---' (after directives) *)
    destruct (dirs_first td tds dirs u Hmd Hms) as (t0 & r0 & E0 & H0).
    assert (Hx0 : snd t0 <> TDocumentEnd) by (destruct H0 as [H0|H0]; [destruct (snd t0); discriminate | rewrite H0; discriminate]).
    unfold token in *. rewrite E0 in Hv.
    pose proof (view_len _ _ _ _ _ _ _ _ Hv) as Hlen. rewrite app_length in Hlen. cbn [length] in Hlen.
    destruct (skip_ends le p t0 r0 (between closed) [] a n tg kp (S (S (length (p_toks p)))) Hv Hle Hx0 ltac:(unfold token in *; lia)) as (p0 & E1 & V1).
    cbn in Hms. apply map_snd_cons in Hms as (spS & t2 & -> & Hms). apply map_eq_nil in Hms as ->.
    set (q := mkp r0 (Some t0) (between closed) [] a n tg kp).
    assert (Eq : document_start p closed = explicit_document_start q).
    { unfold document_start. rewrite E1. vpeek V1. fold q. destruct t0 as [s0 k0]. cbn [snd] in H0.
      destruct H0 as [H0 | ->]; [destruct k0; try discriminate; reflexivity | reflexivity]. }
    assert (Vq : view q = mkv (td ++ (spS, TDocumentStart) :: u) (between closed) [] a n tg kp).
    { unfold q. rewrite view_mkp_some. f_equal. symmetry. exact E0. }
    pose proof (view_len _ _ _ _ _ _ _ _ Vq) as Hlen2. rewrite app_length in Hlen2.
    assert (Hld : length td = length dirs) by (rewrite <- (map_length snd td), Hmd, map_length; reflexivity).
    destruct (proc_dirs dirs q td (spS, TDocumentStart) u (between closed) [] a n tg kp false [] []
                (S (S (length (p_toks q)))) Vq Hmd Hok ltac:(intros h; reflexivity) eq_refl ltac:(unfold token in *; cbn [length] in Hlen2; lia))
      as (q' & E2 & V2).
    cbn [app] in V2.
    eexists. split.
    + econstructor; [|constructor]. rewrite (sm_between closed p (view_state _ _ _ _ _ _ _ _ Hv)), Eq.
      unfold explicit_document_start. rewrite E2. vpeek V2. reflexivity.
    + reflexivity.
  - (* no '---': only after '...' or at the start of the stream, no directives *)
    cbn [orb] in Hsc. subst closed. cbn [andb] in Hd. rewrite orb_false_r in Hd.
    destruct dirs as [|d r]; [|discriminate]. cbn [map] in Hmd. apply map_eq_nil in Hmd as ->.
    cbn in Hms. apply map_eq_nil in Hms as ->. cbn [app] in Hv.
    destruct Hu as [?|(sy & y & u' & -> & Hy)]; [discriminate|].
    assert (Hx0 : snd (sy, y) <> TDocumentEnd) by (cbn; intros ->; discriminate).
    pose proof (view_len _ _ _ _ _ _ _ _ Hv) as Hlen. rewrite app_length in Hlen. cbn [length] in Hlen.
    destruct (skip_ends le p (sy, y) u' (between true) [] a n tg kp (S (S (length (p_toks p)))) Hv Hle Hx0 ltac:(unfold token in *; lia)) as (p0 & E1 & V1).
    eexists. split.
    + econstructor; [|constructor]. rewrite (sm_between true p (view_state _ _ _ _ _ _ _ _ Hv)).
      unfold document_start. rewrite E1. vpeek V1.
      destruct y; try discriminate; reflexivity.
    + reflexivity.
Qed.

Definition doc_follow (x : tok) : bool := match x with TDocumentEnd | TStreamEnd | TDocumentStart => true | _ => false end.

(* the root node of a document, from any anchor environment and tag table *)
Lemma doc_content_gen es t p1 (tt : list token) x rest e tg keep :
  wf_root es t = true ->
  view p1 = mkv (tt ++ x :: rest) (doc_state es) [SDocumentEnd] (ae_map e) (ae_next e) tg keep ->
  map snd tt = tokens_of t -> doc_follow (snd x) = true -> fits tg e (pre_events t) ->
  emits (state_machine p1) (pre_events t) (x :: rest) SDocumentEnd [] e tg keep.
Proof.
  intros Hw Hv Hm Hx [Hb Hn]. unfold wf_root in Hw.
  assert (Hfx : follow (snd x) = true) by (destruct (snd x); try discriminate; reflexivity).
  rewrite (sm_doc_state es p1 (view_state _ _ _ _ _ _ _ _ Hv)).
  destruct (is_none t) eqn:EN.
  - (* the root node is left out: only after '---' *)
    subst es. destruct t; try discriminate. apply map_eq_nil in Hm as ->. cbn [app] in Hv.
    destruct x as [sx tx]. cbn [snd] in Hx.
    eapply (emits_one _ pnull); [rewrite document_content_if; vpeek Hv; destruct tx; try discriminate|]; reflexivity.
  - destruct (first_tok_spanned _ _ _ _ Hw Hm) as (sp0 & y0 & tt' & -> & [S0 | [? _]]); [|discriminate].
    cbn [app] in Hv.
    pose proof (node_spec t true false (mkp (tt' ++ x :: rest) (Some (sp0, y0)) (doc_state es) [SDocumentEnd] (ae_map e) (ae_next e) tg keep)
                ((sp0, y0) :: tt') x rest (doc_state es) SDocumentEnd [] e tg keep Hw eq_refl Hm Hfx ltac:(discriminate) Hb Hn) as R.
    destruct es.
    + rewrite document_content_if. vpeek Hv.
      assert (E : tin ([TDocumentStart; TDocumentEnd; TStreamEnd] ++ directive_kinds) y0 = false)
        by (destruct y0; try discriminate; reflexivity).
      cbn [snd]. rewrite E. exact R.
    + unfold parse_node in R |- *. vpeek Hv. exact R.
Qed.

Definition is_end (x : tok) : bool := match x with TDocumentEnd => true | _ => false end.

Lemma doc_close_gen p x rest a n tg kp :
  view p = mkv (x :: rest) SDocumentEnd [] a n tg kp ->
  doc_follow (snd x) = true ->
  exists p', steps p [EDocumentEnd] p' /\
    view p' = mkv (if is_end (snd x) then rest else x :: rest) (between (is_end (snd x))) [] [] n (if kp then tg else []) kp.
Proof.
  intros Hv Hx. destruct x as [sx tx]. cbn [snd] in *.
  destruct tx; try discriminate; cbn [is_end between];
    (eexists; split;
     [ econstructor; [rewrite (sm_document_end p (view_state _ _ _ _ _ _ _ _ Hv)); unfold document_end; vpeek Hv; destruct kp; reflexivity | constructor]
     | destruct kp; reflexivity ]).
Qed.

(* one document, in the parser's own handle table *)
Lemma doc_run closed dirs start root (le td tds tt : list token) x rest p n tg kp :
  view p = mkv (le ++ td ++ tds ++ tt ++ x :: rest) (between closed) [] [] n tg kp ->
  all_ends le ->
  map snd td = map dir_tok dirs -> map snd tds = flag start TDocumentStart -> map snd tt = tokens_of root ->
  doc_follow (snd x) = true ->
  dirs_ok [] false dirs = true -> (negb (nonempty dirs) || (closed && start)) = true -> (start || closed) = true ->
  wf_root start root = true ->
  bound (extend_tags tg (dir_tags dirs)) (doc_env n) (pre_events root) = true -> (0 < n)%N ->
  exists p', steps p (EDocumentStart start :: number (extend_tags tg (dir_tags dirs)) (doc_env n) (pre_events root) ++ [EDocumentEnd]) p' /\
    view p' = mkv (if is_end (snd x) then rest else x :: rest) (between (is_end (snd x))) [] []
                  (ae_next (env_after (doc_env n) (pre_events root)))
                  (if kp then extend_tags tg (dir_tags dirs) else []) kp.
Proof.
  intros Hv Hle Hmd Hms Hmt Hx Hok Hd Hsc Hroot Hb Hn.
  assert (Hu : start = true \/ exists sy y u', tt ++ x :: rest = (sy, y) :: u' /\ is_start y = true).
  { destruct start; [left; reflexivity|right]. unfold wf_root in Hroot.
    destruct (is_none root) eqn:EN; [discriminate|].
    destruct (first_tok_spanned _ _ _ _ Hroot Hmt) as (sy & y & tt' & -> & [S0 | [? _]]); [|discriminate].
    cbn. eauto. }
  destruct (doc_open_gen closed dirs start le td tds (tt ++ x :: rest) p [] n tg kp Hv Hle Hmd Hms Hok Hd Hsc Hu)
    as (p1 & R1 & V1).
  destruct (doc_content_gen start root p1 tt x rest (doc_env n) _ kp Hroot V1 Hmt Hx (conj Hb Hn)) as (p2 & R2 & V2).
  apply run_steps in R2.
  destruct (doc_close_gen p2 x rest _ _ _ kp V2 Hx) as (p3 & R3 & V3).
  exists p3. split; [|exact V3].
  exact (steps_app _ [_] _ _ _ R1 (steps_app _ _ _ _ _ R2 R3)).
Qed.

(* behind the last document *)
Lemma stream_end closed (le : list token) spE p n tg kp :
  view p = mkv (le ++ [(spE, TStreamEnd)]) (between closed) [] [] n tg kp -> all_ends le ->
  exists p', steps p [EStreamEnd] p' /\ p_state p' = SEnd.
Proof.
  intros Hv Hle.
  pose proof (view_len _ _ _ _ _ _ _ _ Hv) as Hlen. rewrite app_length in Hlen. cbn [length] in Hlen.
  destruct (skip_ends le p (spE, TStreamEnd) [] (between closed) [] [] n tg kp (S (S (length (p_toks p)))) Hv Hle
              ltac:(discriminate) ltac:(unfold token in *; lia)) as (p0 & E1 & V1).
  eexists. split.
  - econstructor; [|constructor].
    rewrite (sm_between closed p (view_state _ _ _ _ _ _ _ _ Hv)). unfold document_start. rewrite E1. vpeek V1. reflexivity.
  - reflexivity.
Qed.

(* one document: stream start, document start, root node, document end, stream end *)
Lemma doc_open es sp0 (tds u : list token) keep :
  map snd tds = flag es TDocumentStart ->
  (es = true \/ exists sy y u', u = (sy, y) :: u' /\ is_start y = true) ->
  exists p1, steps (init_p ((sp0, TStreamStart) :: tds ++ u) keep) [EStreamStart; EDocumentStart es] p1 /\
     view p1 = mkv u (doc_state es) [SDocumentEnd] [] 1%N [] keep.
Proof.
  intros Hm Hu.
  destruct (doc_open_gen true [] es [] [] tds u (mkp (tds ++ u) None SImplicitDocumentStart [] [] 1%N [] keep) [] 1%N [] keep
              eq_refl (Forall_nil _) eq_refl Hm eq_refl eq_refl (orb_true_r es) Hu) as (p1 & R1 & V1).
  exists p1. split; [|exact V1]. econstructor; [reflexivity|exact R1].
Qed.

Lemma doc_steps t es ee toks keep :
  wf_root es t = true -> bound [] env0 (pre_events t) = true ->
  map snd toks = wrap es ee (tokens_of t) ->
  exists p3, steps (init_p toks keep) (wrap_events es (events_of t)) p3 /\ p_state p3 = SEnd.
Proof.
  intros Hw Hb Hm. unfold wrap in Hm.
  apply map_snd_cons in Hm as (sp0 & t1 & -> & Hm).
  apply map_eq_app in Hm as (tds & t2 & -> & Hmds & Hm).
  apply map_eq_app in Hm as (tt & t3 & -> & Hmt & Hm).
  apply map_eq_app in Hm as (tde & t4 & -> & Hmde & Hm).
  apply map_snd_cons in Hm as (spE & t5 & -> & Hm). apply map_eq_nil in Hm as ->.
  (* the token behind the root node: '...' or the end of the stream *)
  assert (Hx : exists x rest, tde ++ [(spE, TStreamEnd)] = x :: rest /\ doc_follow (snd x) = true /\
                              (if is_end (snd x) then rest else x :: rest) = [(spE, TStreamEnd)]).
  { destruct ee; cbn [flag] in Hmde.
    - apply map_snd_cons in Hmde as (sd & t6 & -> & Hmde). apply map_eq_nil in Hmde as ->. cbn. eauto.
    - apply map_eq_nil in Hmde as ->. cbn. eauto. }
  destruct Hx as (x & rest & Ex & Hx & Erest). unfold token in *. rewrite Ex.
  destruct (doc_run true [] es t [] [] tds tt x rest (mkp (tds ++ tt ++ x :: rest) None SImplicitDocumentStart [] [] 1%N [] keep)
              1%N [] keep eq_refl (Forall_nil _) eq_refl Hmds Hmt Hx eq_refl eq_refl (orb_true_r es) Hw Hb eq_refl)
    as (p2 & R2 & V2).
  unfold token in *. rewrite Erest in V2.
  destruct (stream_end _ [] spE p2 _ _ keep V2 (Forall_nil _)) as (p3 & R3 & E3).
  exists p3. split; [|exact E3].
  pose proof (steps_app _ _ _ _ _ R2 R3) as R. cbn [app] in R. rewrite <- app_assoc in R.
  econstructor; [reflexivity | exact R].
Qed.

Require Import Pipe.

(* a run of the state machine is what parse_all does, as long as the fuel lasts *)
Lemma steps_parse_all p evs q : steps p evs q ->
  forall f se acc, exists l, map fst l = evs /\
    parse_all (length evs + f) p se acc = parse_all f q se (rev l ++ acc).
Proof.
  induction 1 as [p | p e sp p' evs p'' Hs Hst IH]; intros f se acc.
  - exists []. split; reflexivity.
  - destruct (IH f se ((e, sp) :: acc)) as (l & El & Ep).
    exists ((e, sp) :: l). split; [cbn; f_equal; exact El|].
    cbn [length plus parse_all].
    pose proof (steps_no_end _ _ _ _ (steps_cons _ _ _ _ _ _ Hs Hst)) as Hne.
    destruct (p_state p) eqn:ES; try congruence; rewrite Hs, Ep; cbn [rev]; rewrite <- app_assoc; reflexivity.
Qed.

(* a run that reaches the end state, with fuel to spare: parse_all returns its events and is done *)
Lemma steps_end_parse_all p evs q se fuel : steps p evs q -> p_state q = SEnd -> (length evs < fuel)%nat ->
  map fst (fst (parse_all fuel p se [])) = evs /\ snd (parse_all fuel p se []) = PDone.
Proof.
  intros R E Hf.
  destruct (steps_parse_all _ _ _ R (fuel - length evs)%nat se []) as (l & El & Ep).
  replace (length evs + (fuel - length evs))%nat with fuel in Ep by lia.
  rewrite Ep. destruct (fuel - length evs)%nat as [|f] eqn:Ef; [lia|].
  cbn [parse_all]. rewrite E. cbn [fst snd]. split; [|reflexivity].
  rewrite app_nil_r, rev_involutive. exact El.
Qed.

(* the parser model on the token list of a document: exactly the denoted events, and the run ends normally *)
Theorem parse_wrap t es ee toks keep se fuel :
  wf_root es t = true -> bound [] env0 (pre_events t) = true ->
  map snd toks = wrap es ee (tokens_of t) ->
  (length (wrap_events es (events_of t)) < fuel)%nat ->
  map fst (fst (parse_all fuel (init_p toks keep) se [])) = wrap_events es (events_of t) /\
  snd (parse_all fuel (init_p toks keep) se []) = PDone.
Proof.
  intros Hw Hb Hm Hf. destruct (doc_steps t es ee toks keep Hw Hb Hm) as (p3 & R & E3).
  exact (steps_end_parse_all _ _ _ se fuel R E3 Hf).
Qed.
