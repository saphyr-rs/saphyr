(* C05 / C04 in document context, a FOLLOWER behind the scalar: the scalar is the value of the first pair of a two-pair
   top-level mapping / the first entry of a two-entry top-level sequence; the sibling's value is a one-line plain scalar.
   See the header of Proofs/ScalarContext2Pos.v for the method (position invariant of Proofs/ScanPos.v: behind the scalar the
   scanner stands at column 0 of a later line; the key saved for the scalar is stale; the stack fetches like [at_tok]).
   [ctx_scalar_sib] is the theorem for any kind of scalar ([fetches_pos]: what is asked of the kind); block scalars (C05) are
   its first instance. *)
From Coq Require Import List NArith ZArith Bool Arith Lia.
Import ListNotations.
Require Import Parser SBase SPrim SFetch Pipe Drivers TokenGrammar FlowText ScanFlowProofs ScanBlockProofs ScanFrame BlockScalar BlockScalarCase FlowFold PlainScalarProofs ScalarContext ScalarContextBlock ScalarContextQuoted ScalarContextFlow ScalarContext2PlainDoc Positions ScanPos ScanPosBlock ScalarContext2Pos.
Open Scope N_scope.
Open Scope mon_scope.

(* the text of a case with a follower *)
Lemma with_breaks_app brk a c : with_breaks brk (a ++ c) = with_breaks brk a ++ with_breaks brk c.
Proof. unfold with_breaks. apply flat_map_app. Qed.
Lemma with_breaks_lf brk : with_breaks brk [LF] = brk_src brk.
Proof. unfold with_breaks, brk_src, LF. cbn [flat_map]. change (10 =? 10) with true. cbv iota. apply app_nil_r. Qed.
Lemma with_breaks_cons brk x r : (x =? 10) = false -> with_breaks brk (x :: r) = x :: with_breaks brk r.
Proof. intros H. unfold with_breaks. cbn [flat_map]. rewrite H. reflexivity. Qed.
Lemma with_breaks_0 t : with_breaks 0 t = t.
Proof.
  unfold with_breaks. induction t as [|c t IH]; [reflexivity|]. cbn [flat_map]. rewrite IH.
  change (0 =? 1) with false. change (0 =? 2) with false. cbv iota. destruct (N.eqb_spec c 10) as [-> |_]; reflexivity.
Qed.

(* the sibling line is written the same in every break style *)
Definition keeps_breaks (brk : N) (t : list N) : bool := (brk =? 0) || forallb (fun c => negb (c =? 10)) t.
Lemma keeps_breaks_id brk t : keeps_breaks brk t = true -> with_breaks brk t = t.
Proof.
  unfold keeps_breaks. intros H. apply orb_prop in H as [H|H]; [apply N.eqb_eq in H; subst brk; apply with_breaks_0|apply with_breaks_nolf, H].
Qed.

Lemma case_block_rest b x r : bc_eof b = EofRest (x :: r) -> (x =? 10) = false -> (x =? 32) = false ->
  keeps_breaks (bc_brk b) (x :: r) = true ->
  exists Hd, case_block b = Hd ++ brk_src (bc_brk b) ++ x :: r /\ case_rest b = x :: r.
Proof.
  intros He H10 H32 Hk. unfold case_block, case_rest, render_block. rewrite He.
  eexists (with_breaks (bc_brk b) (header _ _ _ _ ++ bc_hc b ++ flat_map _ (case_lines b))). split.
  - rewrite !with_breaks_app. change (LF :: x :: r) with ([LF] ++ x :: r). rewrite with_breaks_app, with_breaks_lf, (keeps_breaks_id _ _ Hk).
    rewrite <- !app_assoc. reflexivity.
  - rewrite (keeps_breaks_id _ _ Hk). cbn [strip_spaces]. rewrite H32. reflexivity.
Qed.

Lemma forallb_nonul t : forallb (fun c => negb (c =? 0)) t = true -> Forall (fun c => c <> 0) t.
Proof.
  intros H. apply Forall_forall. intros c Hc. rewrite forallb_forall in H. specialize (H c Hc). apply negb_true_iff, N.eqb_neq in H. exact H.
Qed.

(* fetch_block_scalar with the position behind the scalar *)
Lemma fetch_block_case_pos F b l mk q adj ska k ind inds tp lws inds1 orig pre0 P :
  case_ok b = true -> leading_tab_b b = false ->
  unroll_nb inds ind = (parent_z (bc_parent b), inds1) -> (case_fuel b < F)%nat ->
  ((ind =? Z.of_N (m_col mk))%Z = true -> inds <> []) ->
  Forall (fun c => c <> 0) orig -> orig = pre0 ++ case_block b -> m_index mk = N.of_nat (length pre0) ->
  (m_line mk, m_col mk) = pos_go orig (length pre0) 1 0 ->
  orig = P ++ brk_src (bc_brk b) ++ case_rest b -> (hd 0 (case_rest b) =? 10) = false -> (length pre0 <= length P)%nat ->
  exists l' mk' sp lws' ind' inds',
    fetch_block_scalar str_ops F (bc_literal b) (mkb (case_block b) l mk q adj ska k ind inds tp false lws)
    = Ok (tt, mkb (case_rest b) l' mk' (q ++ [(sp, TScalar (bstyle b) (case_value b))]) adj true (saved ska k ind inds tp q mk) ind' inds' tp false lws')
    /\ nbrel (ind, inds) (ind', inds') /\ m_col mk' = 0 /\ m_line mk < m_line mk'.
Proof.
  intros Hok Htab Hun HF Hreq Hnn Eo Hidx Hpos EP Hhd Hlen.
  set (S1 := mkb (case_block b) l mk q adj true (saved ska k ind inds tp q mk) ind inds tp false lws).
  destruct (scan_block_b F b l mk q adj (saved ska k ind inds tp q mk) ind inds tp lws inds1 Hok Htab Hun HF)
    as (sp & l' & mk' & lws' & ind' & inds' & E & Hnb). fold S1 in E.
  assert (HM1 : MarkAt orig pre0 S1) by (repeat split; [exact Eo | exact Hidx | exact Hpos]).
  assert (Hbz : is_breakz (rnth S1 0) = false).
  { unfold rnth, rem, S1. cbn [sc_in si_chars mkb]. destruct (case_block_head b) as (cs & ->). cbn [nth]. destruct (bc_literal b); reflexivity. }
  pose proof (pos_scan_block_scalar orig Hnn F (bc_literal b) S1 (ex_intro _ pre0 HM1) Hbz) as Hp.
  unfold swp in Hp. rewrite E in Hp. destruct Hp as (HM' & _).
  destruct (mark_behind_break orig pre0 S1 _ P (bc_brk b) (case_rest b) HM1 HM' eq_refl EP Hhd Hlen) as [Hc Hl].
  exists l', mk', sp, lws', ind', inds'. split; [|split; [exact Hnb|split; [exact Hc|exact Hl]]].
  exact (fetch_scan_b _ push_tok true _ _ _ _ _ _ _ _ _ _ _ _ _ Hreq E).
Qed.

(* behind the scalar: the token is handed out, the sibling line is scanned from an at_tok state *)
Lemma sibling_tail F (s' : sc strin) l2 i2 ln2 t adj K ind2 inds2 tp lws2 x r T :
  (3 <= F)%nat -> canon s' ->
  fetch_next_token str_ops F s' = Ok (tt, mkb (x :: r) l2 (mkm i2 ln2 0) [t] adj true K ind2 inds2 tp false lws2) ->
  snd t <> TStreamEnd -> (stale_k K (mkm i2 ln2 0) && sk_required K) = false -> sk_possible (staled K (mkm i2 ln2 0)) = false ->
  ((ind2, inds2) = stk [0] \/ (ind2, inds2) = (1%Z, nbl 0 :: snd (stk [0]))) -> first_ok x ->
  (forall B, at_tok B (x :: r) 0 [0] -> ends_with F B T) ->
  ends_with F s' (snd t :: T).
Proof.
  intros HF Hcanon Hf Ht Hst Hnp Hstk Hx HB.
  pose proof (unit1 F s' (x :: r) l2 (mkm i2 ln2 0) t [] adj true K ind2 inds2 tp lws2 ltac:(lia) Hcanon Hf ltac:(repeat constructor; exact Ht) Hst Hnp) as Hd.
  set (K' := staled K (mkm i2 ln2 0)) in *. set (tp' := tp + N.of_nat (length [t])) in *.
  set (B := mkb (x :: r) l2 (mkm i2 ln2 0) [] adj true K' (fst (stk [0])) (snd (stk [0])) tp' false lws2).
  assert (HatB : at_tok B (x :: r) 0 [0]) by (exists l2, i2, ln2, adj, K', tp', lws2; split; [reflexivity|left; exact Hnp]).
  pose proof (HB B HatB) as HeB.
  assert (HeS : ends_with F (mkb (x :: r) l2 (mkm i2 ln2 0) [] adj true K' ind2 inds2 tp' false lws2) T).
  { apply (ends_with_fetch_eq F _ B T ltac:(lia) (canon_b _ _ _ _ _ _ _ _ _ _) (canon_b _ _ _ _ _ _ _ _ _ _)); [|exact HeB].
    apply sibling_fetch_eq; [exact Hx | lia | apply stale_staled, Hst | exact Hstk]. }
  exact (ends_with_delivers F s' [t] _ T Hd HeS).
Qed.

Lemma nbrel_sib0 ind inds ind2 inds2 : (ind, inds) = stk [0] \/ (ind, inds) = (1%Z, nbl 0 :: snd (stk [0])) ->
  nbrel (ind, inds) (ind2, inds2) -> (ind2, inds2) = stk [0] \/ (ind2, inds2) = (1%Z, nbl 0 :: snd (stk [0])).
Proof. intros [E|E]; injection E as -> ->; (intros [H|H]; [|left; rewrite H; reflexivity]); [left|right]; exact H. Qed.

(* what is asked of a kind of scalar that has a follower on a later line *)
(* [fetches] (Proofs/ScalarContextFlow.v) from a state whose mark is the true position in [orig] ([MarkAt], Proofs/ScanPos.v):
   [rest] is left at column 0 of a later line, where a simple key is allowed. *)
Definition fetches_pos (F : nat) (txt rest : list N) (t : tok) (side : Z -> list indent_rec -> N -> Prop) : Prop :=
  forall l mk q adj ska k ind inds tp lws orig pre0,
    (4 <= l)%nat -> side ind inds (m_col mk) -> ((ind =? Z.of_N (m_col mk))%Z = true -> inds <> []) ->
    Forall (fun c => c <> 0) orig -> MarkAt orig pre0 (mkb txt l mk q adj ska k ind inds tp false lws) ->
    exists l' mk' sp adj' lws' ind' inds',
      fnt_rest F (mkb txt l mk q adj ska k ind inds tp false lws)
      = Ok (tt, mkb rest l' mk' (q ++ [(sp, t)]) adj' true (saved ska k ind inds tp q mk) ind' inds' tp false lws')
      /\ nbrel (ind, inds) (ind', inds') /\ m_col mk' = 0 /\ m_line mk < m_line mk'.

(* a scalar under a collection at column 0, then a line [y :: r] of that collection *)
Lemma scalar_sib F s txt ind inds P t side y r T orig pre0 :
  before_node F s txt ind inds P -> (3 <= F)%nat -> fetches_pos F txt (y :: r) t side ->
  (ind, inds) = stk [0] \/ (ind, inds) = (1%Z, nbl 0 :: snd (stk [0])) ->
  (forall mk, P mk -> side ind inds (m_col mk) /\ m_index mk = N.of_nat (length pre0)
                      /\ (m_line mk, m_col mk) = pos_go orig (length pre0) 1 0) ->
  Forall (fun c => c <> 0) orig -> orig = pre0 ++ txt -> t <> TStreamEnd -> first_ok y ->
  (forall B, at_tok B (y :: r) 0 [0] -> ends_with F B T) ->
  ends_with F s (t :: T).
Proof.
  intros (Hcanon & Hg & l & mk & adj & ska & k & tp & lws & HP & Hl & Hk & Hr & Hf) HF Hfetch Hstk HPm Hnn Eo Ht Hy HB.
  destruct (HPm mk HP) as (Hside & Hidx & Hpos).
  destruct (Hfetch l mk [] adj ska k ind inds tp lws orig pre0 Hl Hside (grounded_req _ _ _ Hg) Hnn ltac:(repeat split; assumption))
    as (l2 & [i2 ln2 c2] & sp & adj2 & lws2 & ind2 & inds2 & E & Hnb & Hc & Hln).
  cbn [m_col m_line] in Hc, Hln. subst c2. rewrite E in Hf. cbn [app] in Hf.
  destruct (saved_stale ska k ind inds tp [] mk (mkm i2 ln2 0) Hk Hr Hln) as [HK1 HK2].
  exact (sibling_tail F s l2 i2 ln2 (sp, t) adj2 _ ind2 inds2 tp lws2 y r T HF Hcanon Hf Ht HK1 HK2 (nbrel_sib0 _ _ _ _ Hstk Hnb) Hy HB).
Qed.

Lemma p_text_nil w tail : p_text w [] tail = w ++ tail.
Proof. unfold p_text, plain_render. cbn [flat_map]. rewrite app_nil_r. reflexivity. Qed.
Lemma plain_text_nil w : plain_text w [] = w.
Proof. rewrite plain_text_rest. cbn [rest_text]. apply app_nil_r. Qed.

(* a one-line plain scalar holds no line feed *)
Lemma plain_line_nolf : forall w prev, plain_line_chars_wf false prev w = true -> forallb (fun c => negb (c =? 10)) w = true.
Proof.
  induction w as [|c w IH]; intros prev H; [reflexivity|]. cbn [plain_line_chars_wf forallb] in *. apply andb_prop in H as [Hc H].
  rewrite (IH c H), andb_true_r. destruct (N.eqb_spec c 10) as [-> |_]; [discriminate Hc|reflexivity].
Qed.

(* the trailing white space of the sibling line *)
Definition tail_ok (brk : N) (tail : list N) : bool := ws_only tail && keeps_breaks brk tail.

Lemma keeps_breaks_app brk a c : keeps_breaks brk a = true -> keeps_breaks brk c = true -> keeps_breaks brk (a ++ c) = true.
Proof.
  unfold keeps_breaks. destruct (brk =? 0); [reflexivity|]. cbn [orb]. intros Ha Hc. rewrite forallb_app, Ha, Hc. reflexivity.
Qed.
Lemma keeps_breaks_nolf brk a : forallb (fun c => negb (c =? 10)) a = true -> keeps_breaks brk a = true.
Proof. unfold keeps_breaks. intros ->. apply orb_true_r. Qed.

Definition sib_wf (w : list N) : bool := plain_layout_wf false 0 w [].
Lemma sib_wf_nolf w : sib_wf w = true -> forallb (fun c => negb (c =? 10)) w = true.
Proof.
  unfold sib_wf, plain_layout_wf. intros H. apply andb_prop in H as [H _]. apply andb_prop in H as [_ H].
  unfold plain_line_wf in H. destruct w as [|c w]; [discriminate H|]. apply andb_prop in H as [_ H]. exact (plain_line_nolf _ _ H).
Qed.

(* the sibling line *)
(* the place of the sibling: a further entry, a further pair with the key kw2 *)
Definition sibling (p : place) (kw2 : list N) : place := match p with Value _ => Value kw2 | _ => p end.
(* the tokens of an entry / a pair inside its collection *)
Definition item (p : place) (T : list tok) : list tok :=
  match p with Top => T | Entry => TBlockEntry :: T | Value kw => TKey :: TScalar Plain kw :: TValue :: T end.

Lemma in_place_head p body : p <> Top -> place_ok p -> exists y r, in_place p body = y :: r /\ first_ok y /\ (y =? 0) = false.
Proof.
  intros Hp Hok. destruct p as [| |kw]; [congruence| |]; cbn [in_place place_ok] in *.
  - exists 45, (32 :: body). repeat split; reflexivity.
  - destruct (key_ok_word kw Hok) as (c0 & w & -> & Hw & _). cbn [forallb] in Hw. apply andb_prop in Hw as [Hc0 _].
    exists c0, (w ++ 58 :: 32 :: body). split; [reflexivity|exact (wch_first_ok c0 Hc0)].
Qed.

Lemma wch_nobreak w : forallb wch w = true -> forallb (fun c => negb (is_break c)) w = true.
Proof.
  intros H. apply forallb_forall. intros c Hc. rewrite forallb_forall in H. destruct (wch_facts c (H c Hc)) as (Hb & _).
  destruct (blankz_facts c Hb) as (_ & _ & E10 & E13 & _). unfold is_break. rewrite E10, E13. reflexivity.
Qed.

(* from the start of the sibling line, the last line of the collection at column 0, to the end of the input *)
Lemma sib_line_ends F B p w tail : p <> Top -> place_ok p -> sib_wf w = true -> ws_only tail = true ->
  (2 * length (in_place p (w ++ tail)) + 10 <= F)%nat -> at_tok B (in_place p (w ++ tail)) 0 [0] ->
  ends_with F B (item p [TScalar Plain w] ++ [TBlockEnd; TStreamEnd]).
Proof.
  intros Hp Hok Hw Hws HF HatB. rewrite <- (plain_text_nil w). fold (p_tok w []).
  destruct p as [| |kw]; [congruence| |]; cbn [in_place place_ok item length] in *.
  - destruct (plain_first_facts 1 w [] Hw) as (x & t & Ew & (Hfo & _ & Hbr & Hfl) & _). rewrite Ew in HatB. cbn [app] in HatB.
    destruct (dash_sp F B x (t ++ tail) 0 [] [0] false (or_introl HatB) ltac:(constructor) ltac:(exists []; reflexivity)
                (first_ok_not_ws x Hfo) Hbr Hfl ltac:(lia)) as (pre2 & s2 & Hd2 & Hmp2 & Hat2).
    cbn [joined Nat.add] in Hat2. change (x :: t ++ tail) with ((x :: t) ++ tail) in Hat2. rewrite <- Ew, <- (p_text_nil w tail) in Hat2.
    pose proof (plain_end_tok F s2 1 w [] tail 2 [0] Hat2 ltac:(cbn; lia) ltac:(cbn; lia) Hw Hws ltac:(discriminate)
                  ltac:(rewrite p_text_nil; lia)) as He2.
    pose proof (ends_with_delivers F B pre2 s2 _ Hd2 He2) as He3. rewrite Hmp2 in He3. exact He3.
  - destruct (key_ok_word kw Hok) as (c2 & w2 & -> & Hw2 & Hlen2). cbn [app length] in HatB, HF. rewrite app_length in HF. cbn [length] in HF.
    destruct (key_at_tok F B c2 w2 32 (w ++ tail) 0 [] [0] false HatB Hw2 Hlen2 (or_introl eq_refl) ltac:(constructor)
                ltac:(exists []; reflexivity) ltac:(lia)) as (pre2 & s2 & Hd2 & Hmp2 & Hat2).
    cbn [joined] in Hat2. rewrite <- (p_text_nil w tail) in Hat2.
    pose proof (plain_end_below F s2 1 w [] tail 0 [] Hat2 ltac:(cbn; lia) Hw Hws ltac:(rewrite p_text_nil; lia)) as He2.
    pose proof (ends_with_delivers F B pre2 s2 _ Hd2 He2) as He3. rewrite Hmp2 in He3. exact He3.
Qed.

(* the whole scanner: a scalar, then a sibling *)
(* [exists m, x :: cs = m ++ ...]: the sibling's line is a suffix of the scalar's text, hence at most as long, and the
   fuel computed from the whole text is enough for that line too.  The NUL-free premise is that of the position
   invariant [MarkAt] (Proofs/ScanPos.v), through which [fetches_pos] knows the line and column at which the scalar ends:
   a NUL read by peek is then the end of the input and nothing else. *)
Theorem ctx_scalar_sib p kw2 x cs t side w tail :
  p <> Top -> place_ok p -> place_ok (sibling p kw2) -> node_head x -> t <> TStreamEnd ->
  sib_wf w = true -> ws_only tail = true -> (exists m, x :: cs = m ++ in_place (sibling p kw2) (w ++ tail)) ->
  fetches_pos (2 * length (in_place p (x :: cs)) + 10) (x :: cs) (in_place (sibling p kw2) (w ++ tail)) t side -> side_at side p ->
  forallb (fun c => negb (c =? 0)) (in_place p (x :: cs)) = true ->
  exists toks, scan_str (in_place p (x :: cs)) = (toks, SEnded) /\
               map snd toks = wrap false false (around p (t :: item (sibling p kw2) [TScalar Plain w])).
Proof.
  intros Hp Hok Hok2 (Hfo & Hnz & Hbr & Hfl) Ht Hw Hws (m & Em) Hfetch Hside Hnul.
  assert (Hp2 : sibling p kw2 <> Top) by (destruct p; [congruence|discriminate..]).
  set (line := in_place (sibling p kw2) (w ++ tail)) in *.
  destruct (in_place_head (sibling p kw2) (w ++ tail) Hp2 Hok2) as (y & r & Ey & Hy & _). fold line in Ey.
  set (txt := in_place p (x :: cs)) in *. set (F := (2 * length txt + 10)%nat) in *.
  assert (Hll : (length line <= length (x :: cs))%nat) by (rewrite Em, app_length; lia).
  assert (HB : forall B, at_tok B (y :: r) 0 [0] -> ends_with F B (item (sibling p kw2) [TScalar Plain w] ++ [TBlockEnd; TStreamEnd])).
  { intros B HatB. rewrite <- Ey in HatB. apply (sib_line_ends F B _ w tail Hp2 Hok2 Hw Hws); [|exact HatB].
    fold line. unfold F, txt. destruct p; cbn [in_place]; rewrite ?app_length; cbn [length] in *; lia. }
  rewrite Ey in Hfetch. pose proof (start_at_tok_p txt) as Hat. unfold txt in Hat at 2.
  destruct p as [| |kw]; [congruence| |]; cbn [in_place place_ok side_at sibling item] in *.
  - destruct (dash_sp_p F (start_state txt) x cs 0 [] [] true 0 1 Hat ltac:(constructor) ltac:(split; cbn; lia)
                (first_ok_not_ws x Hfo) Hbr Hfl ltac:(lia)) as (pre & s' & Hd & Hmp & Hat').
    cbn [joined Nat.add] in Hat'.
    assert (He : ends_with F s' (t :: [TBlockEntry; TScalar Plain w] ++ [TBlockEnd; TStreamEnd])).
    { apply (scalar_sib F s' _ _ _ _ t side y r _ txt [45; 32]
               (tok_p_before_node F s' x cs 2 [0] _ _ Hat' ltac:(cbn; lia) Hfo Hnz ltac:(lia)) ltac:(lia) Hfetch (or_introl eq_refl));
        [|exact (forallb_nonul _ Hnul)|reflexivity|exact Ht|exact Hy|exact HB].
      intros mk <-. split; [exact Hside|split; [reflexivity|]].
      symmetry. exact (pos_go_nobreak [45; 32] (x :: cs) 1 0 eq_refl). }
    exact (scan_str_units txt pre s' _ _ _ Hd Hmp He ltac:(cbn; lia) eq_refl).
  - destruct (key_ok_word kw Hok) as (c0 & w0 & -> & Hw0 & Hlen0). cbn [app] in Hat.
    destruct (key_at_tok_p F (start_state txt) c0 w0 32 (x :: cs) 0 [] [] true 0 1 Hat Hw0 Hlen0 (or_introl eq_refl) ltac:(constructor)
                ltac:(split; cbn; lia) ltac:(unfold F, txt; cbn [length app]; rewrite app_length; lia))
      as (pre & s' & Hd & Hmp & Hat').
    cbn [joined] in Hat'.
    set (pre0 := c0 :: w0 ++ [58; 32]).
    assert (Eo : txt = pre0 ++ x :: cs) by (unfold txt, pre0; cbn [app]; rewrite <- app_assoc; reflexivity).
    assert (Hpl : N.of_nat (length pre0) = wlen c0 w0 + 2) by (unfold pre0, wlen; cbn [length]; rewrite app_length; cbn [length]; lia).
    assert (Hnb : forallb (fun c => negb (is_break c)) pre0 = true).
    { unfold pre0. change (c0 :: w0 ++ [58; 32]) with ((c0 :: w0) ++ [58; 32]). rewrite forallb_app, (wch_nobreak _ Hw0). reflexivity. }
    assert (He : ends_with F s' (t :: [TKey; TScalar Plain kw2; TValue; TScalar Plain w] ++ [TBlockEnd; TStreamEnd])).
    { apply (scalar_sib F s' _ _ _ _ t side y r _ txt pre0
               (below_p_before_node F s' x cs 0 [] _ _ _ Hat' Hfo Hnz ltac:(lia)) ltac:(lia) Hfetch (or_intror eq_refl));
        [|exact (forallb_nonul _ Hnul)|exact Eo|exact Ht|exact Hy|exact HB].
      intros mk <-. cbn [m_index m_line m_col mkm]. split; [apply Hside; lia|split; [lia|]].
      rewrite Eo, (pos_go_nobreak pre0 _ 1 0 Hnb). f_equal. lia. }
    exact (scan_str_units txt pre s' _ _ _ Hd Hmp He ltac:(cbn; lia) eq_refl).
Qed.

(* block scalars *)
Lemma block_fetches_pos F b Hd y r :
  case_ok b = true -> leading_tab_b b = false -> (case_fuel b < F)%nat ->
  case_block b = Hd ++ brk_src (bc_brk b) ++ y :: r -> case_rest b = y :: r -> (y =? 10) = false ->
  fetches_pos F (case_block b) (y :: r) (TScalar (bstyle b) (case_value b)) (block_side b).
Proof.
  intros Hok Htab HF Ecb Erest H10 l mk q adj ska k ind inds tp lws orig pre0 Hl [Hcol Hun] Hreq Hnn (Eo & Hidx & Hpos).
  rewrite (rest_block_case F b l mk q adj ska k ind inds tp lws Hl Hcol).
  destruct (fetch_block_case_pos F b l mk q adj ska k ind inds tp lws _ orig pre0 (pre0 ++ Hd) Hok Htab
              ltac:(rewrite <- Hun; apply surjective_pairing) HF Hreq Hnn Eo Hidx Hpos
              ltac:(rewrite Eo, Erest; cbn [rem sc_in si_chars mkb]; rewrite Ecb, <- app_assoc; reflexivity)
              ltac:(rewrite Erest; exact H10) ltac:(rewrite app_length; apply Nat.le_add_r))
    as (l' & mk' & sp & lws' & ind' & inds' & E & Hnb & Hc & Hln).
  rewrite Erest in E. exists l', mk', sp, adj, lws', ind', inds'. repeat split; assumption.
Qed.

(* the first pair / entry holds the case, [bc_eof] the sibling line and the white space behind it *)
Lemma scan_block_place_sib b p kw2 w tail :
  p <> Top -> place_ok p -> place_ok (sibling p kw2) -> case_ok b = true -> leading_tab_b b = false -> bc_parent b = Some O ->
  bc_prefix b = in_place p [] -> bc_eof b = EofRest (in_place (sibling p kw2) (w ++ tail)) ->
  sib_wf w = true -> tail_ok (bc_brk b) tail = true -> forallb (fun c => negb (c =? 0)) (case_text b) = true ->
  exists toks, scan_str (case_text b) = (toks, SEnded) /\
               map snd toks = wrap false false (around p (TScalar (bstyle b) (case_value b) :: item (sibling p kw2) [TScalar Plain w])).
Proof.
  intros Hp Hok Hok2 Hcok Htab Hpar Hpre Heof Hw Htail Hnul.
  apply andb_prop in Htail as [Hws Hkb].
  assert (Hp2 : sibling p kw2 <> Top) by (destruct p; [congruence|discriminate..]).
  destruct (in_place_head (sibling p kw2) (w ++ tail) Hp2 Hok2) as (y & r & Ey & (H32 & _ & H10 & _) & _).
  assert (Hkeep : keeps_breaks (bc_brk b) (y :: r) = true).
  { rewrite <- Ey. pose proof (keeps_breaks_app _ _ _ (keeps_breaks_nolf (bc_brk b) w (sib_wf_nolf w Hw)) Hkb) as Hwt.
    destruct p as [| |kw]; [congruence| |]; cbn [sibling in_place place_ok] in *.
    - exact (keeps_breaks_app _ [45; 32] _ (keeps_breaks_nolf _ [45; 32] eq_refl) Hwt).
    - destruct (key_ok_word kw2 Hok2) as (c2 & w2 & -> & Hw2 & _).
      apply keeps_breaks_app; [apply keeps_breaks_nolf, word_nolf, Hw2|exact (keeps_breaks_app _ [58; 32] _ (keeps_breaks_nolf _ [58; 32] eq_refl) Hwt)]. }
  rewrite Ey in Heof. destruct (case_block_rest b y r Heof H10 H32 Hkeep) as (Hd0 & Ecb0 & Erest).
  assert (Hpar' : bc_parent b = place_parent p) by (destruct p; [congruence|exact Hpar..]).
  rewrite (case_text_place b p Hok Hpre) in *. destruct (case_block_head b) as (cs & Ecb).
  pose proof (block_fetches_pos _ b Hd0 y r Hcok Htab (block_fuel_place b p Hcok Hpar') Ecb0 Erest H10) as Hfe.
  rewrite <- Ey in Hfe, Ecb0. rewrite Ecb in *.
  assert (Em : exists m, ind_char (bc_literal b) :: cs = m ++ in_place (sibling p kw2) (w ++ tail))
    by (exists (Hd0 ++ brk_src (bc_brk b)); rewrite <- app_assoc; exact Ecb0).
  exact (ctx_scalar_sib p kw2 _ cs (TScalar (bstyle b) (case_value b)) (block_side b) w tail Hp Hok Hok2 (ind_char_first _)
           ltac:(discriminate) Hw Hws Em Hfe (block_side_at b p Hpar') Hnul).
Qed.

(* a pair and a sibling pair:  kw: <block scalar> / kw2: w *)
Theorem scan_block_value_sib b kw kw2 w tail :
  case_ok b = true -> leading_tab_b b = false -> bc_parent b = Some O -> key_ok kw = true -> bc_prefix b = kw ++ [58; 32] ->
  bc_eof b = EofRest (kw2 ++ 58 :: 32 :: w ++ tail) -> key_ok kw2 = true -> sib_wf w = true -> tail_ok (bc_brk b) tail = true ->
  forallb (fun c => negb (c =? 0)) (case_text b) = true ->
  exists toks, scan_str (case_text b) = (toks, SEnded) /\
               map snd toks = wrap false false [TBlockMappingStart; TKey; TScalar Plain kw; TValue; TScalar (bstyle b) (case_value b);
                                                TKey; TScalar Plain kw2; TValue; TScalar Plain w; TBlockEnd].
Proof.
  intros Hok Htab Hpar Hkw Hpre Heof Hkw2.
  exact (scan_block_place_sib b (Value kw) kw2 w tail ltac:(discriminate) Hkw Hkw2 Hok Htab Hpar Hpre Heof).
Qed.

(* an entry and a sibling entry:  - <block scalar> / - w *)
Theorem scan_block_entry_sib b w tail :
  case_ok b = true -> leading_tab_b b = false -> bc_parent b = Some O -> bc_prefix b = [45; 32] ->
  bc_eof b = EofRest (45 :: 32 :: w ++ tail) -> sib_wf w = true -> tail_ok (bc_brk b) tail = true ->
  forallb (fun c => negb (c =? 0)) (case_text b) = true ->
  exists toks, scan_str (case_text b) = (toks, SEnded) /\
               map snd toks = wrap false false [TBlockSequenceStart; TBlockEntry; TScalar (bstyle b) (case_value b);
                                                TBlockEntry; TScalar Plain w; TBlockEnd].
Proof. intros Hok Htab. exact (scan_block_place_sib b Entry [] w tail ltac:(discriminate) I I Hok Htab). Qed.

(* text -> events *)
Theorem run_block_value_sib b kw kw2 w tail :
  case_ok b = true -> leading_tab_b b = false -> bc_parent b = Some O -> key_ok kw = true -> bc_prefix b = kw ++ [58; 32] ->
  bc_eof b = EofRest (kw2 ++ 58 :: 32 :: w ++ tail) -> key_ok kw2 = true -> sib_wf w = true -> tail_ok (bc_brk b) tail = true ->
  forallb (fun c => negb (c =? 0)) (case_text b) = true ->
  map fst (fst (run_str (case_text b)))
  = [EStreamStart; EDocumentStart false; EMappingStart 0 None; EScalar kw Plain 0 None; EScalar (case_value b) (bstyle b) 0 None;
     EScalar kw2 Plain 0 None; EScalar w Plain 0 None; EMappingEnd; EDocumentEnd; EStreamEnd]
  /\ snd (run_str (case_text b)) = PDone.
Proof.
  intros Hok Htab Hpar Hkw Hpre Heof Hkw2 Hw Htail Hnul.
  exact (run_of_scan _ (LBMap no_props [(true, lword kw, (true, scalar_node b)); (true, lword kw2, (true, lword w))])
           (scan_block_value_sib b kw kw2 w tail Hok Htab Hpar Hkw Hpre Heof Hkw2 Hw Htail Hnul) eq_refl eq_refl ltac:(cbn; lia)).
Qed.

Theorem run_block_entry_sib b w tail :
  case_ok b = true -> leading_tab_b b = false -> bc_parent b = Some O -> bc_prefix b = [45; 32] ->
  bc_eof b = EofRest (45 :: 32 :: w ++ tail) -> sib_wf w = true -> tail_ok (bc_brk b) tail = true ->
  forallb (fun c => negb (c =? 0)) (case_text b) = true ->
  map fst (fst (run_str (case_text b)))
  = [EStreamStart; EDocumentStart false; ESequenceStart 0 None; EScalar (case_value b) (bstyle b) 0 None; EScalar w Plain 0 None;
     ESequenceEnd; EDocumentEnd; EStreamEnd]
  /\ snd (run_str (case_text b)) = PDone.
Proof.
  intros Hok Htab Hpar Hpre Heof Hw Htail Hnul.
  exact (run_of_scan _ (LBSeq no_props [scalar_node b; lword w])
           (scan_block_entry_sib b w tail Hok Htab Hpar Hpre Heof Hw Htail Hnul) eq_refl eq_refl ltac:(cbn; lia)).
Qed.
