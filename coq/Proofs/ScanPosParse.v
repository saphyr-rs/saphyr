(* Joint proof "every position reported is a true position" (see SCANPOS.md), parser half - no scanner reasoning:
   every span the parser attaches to an event, and every marker of a parser error, is taken from the markers of the
   tokens it is given ([p_toks], the cached [p_token]) or from a marker it stored in its state
   ([SFlowSequenceEntryMappingEnd m], itself a token marker).  Hence: if all token markers are true marks, so are
   both markers of every event span and the marker of a parser error; lifted to [parse_all]. *)
From Coq Require Import List NArith Bool Lia.
Import ListNotations.
Require Import SBase SPrim SFetch Pipe Positions ScanPos.
Require Import Parser ParserView.

(* the markers of a token list *)
Definition marks_of_tokens (l : list token) : list marker :=
  flat_map (fun t => [sp_start (fst t); sp_end (fst t)]) l.

Ltac pfields :=
  cbn [p_toks p_token p_states p_state p_anchors p_anchor_id p_tags p_keep_tags
       skip set_tok set_state set_states push_state set_anchors set_tags fst snd] in *.

Ltac psplit := repeat match goal with |- _ /\ _ => split end.

Create HintDb parinv.

Section PosParse.
Variable orig : list N.
Notation tmark := (true_mark orig).
Notation tspan := (true_span orig).
Notation ttok := (true_tok orig).

Lemma marks_of_tokens_true l : Forall tmark (marks_of_tokens l) <-> Forall ttok l.
Proof.
  induction l as [|t l IH]; cbn [marks_of_tokens flat_map app]; [split; constructor|]. fold (marks_of_tokens l). split.
  - intros H. inversion H as [|a l1 Ha H1]; subst. inversion H1 as [|b l2 Hb H2]; subst.
    constructor; [split; assumption|apply IH; exact H2].
  - intros H. inversion H as [|a l1 [Ha Hb] H1]; subst. constructor; [exact Ha|]. constructor; [exact Hb|]. apply IH; exact H1.
Qed.

(* markers stored in parser states *)
Definition st_ok (st : pstate) : Prop :=
  match st with SFlowSequenceEntryMappingEnd m => tmark m | _ => True end.

(* every marker the parser holds - in the tokens still to come, the cached token, the current state and the state
   stack - is a true mark *)
Definition ParInv (p : parser) : Prop :=
  Forall ttok (p_toks p) /\ (forall t, p_token p = Some t -> ttok t) /\ st_ok (p_state p) /\ Forall st_ok (p_states p).

Definition epost (r : res ((event * span) * parser)) : Prop :=
  match r with Ok ((_, sp), q) => tspan sp /\ ParInv q | Err (PErr _ m) => tmark m | _ => True end.
Definition qpost (r : res parser) : Prop :=
  match r with Ok q => ParInv q | Err (PErr _ m) => tmark m | _ => True end.
Definition npost (r : res (N * option tag * parser)) : Prop :=
  match r with Ok (_, _, q) => ParInv q | Err (PErr _ m) => tmark m | _ => True end.

Lemma peek_inv p : ParInv p ->
  match peek p with
  | Ok (t, q) => (tmark (sp_start (fst t)) /\ tmark (sp_end (fst t))) /\ ParInv q
  | Err PErrScan => True
  | Err (PErr _ _) => False
  | Panic _ => False
  end.
Proof.
  intros (HT & HC & HS & HK). unfold peek. destruct (p_token p) as [t|] eqn:E.
  - split; [apply (HC t eq_refl)|]. unfold ParInv. rewrite E. psplit; assumption.
  - destruct (p_toks p) as [|t r] eqn:ET; [exact I|]. inversion HT as [|t0 r0 Ht Hr]; subst.
    split; [exact Ht|]. unfold ParInv. pfields. psplit; try assumption. intros t1 Et. injection Et as <-. exact Ht.
Qed.

Lemma pop_inv p : ParInv p -> match pop_state p with Ok q => ParInv q | Err _ => False | Panic _ => True end.
Proof.
  intros (HT & HC & HS & HK). unfold pop_state. destruct (p_states p) as [|s r] eqn:E; [exact I|].
  inversion HK; subst. unfold ParInv. pfields. psplit; assumption.
Qed.

(* the invariant under the setters *)

Lemma inv_skip p : ParInv p -> ParInv (skip p).
Proof. intros (HT & HC & HS & HK). unfold ParInv. pfields. psplit; try assumption. intros t E. discriminate E. Qed.

Lemma inv_set_state p st : st_ok st -> ParInv p -> ParInv (set_state p st).
Proof. intros Hst (HT & HC & HS & HK). unfold ParInv. pfields. psplit; assumption. Qed.

Lemma inv_push_state p st : st_ok st -> ParInv p -> ParInv (push_state p st).
Proof. intros Hst (HT & HC & HS & HK). unfold ParInv. pfields. psplit; try assumption. constructor; assumption. Qed.

Lemma inv_set_tags p l : ParInv p -> ParInv (set_tags p l).
Proof. exact (fun H => H). Qed.

Lemma inv_set_anchors p a n : ParInv p -> ParInv (set_anchors p a n).
Proof. exact (fun H => H). Qed.

#[local] Hint Resolve inv_skip inv_set_state inv_push_state inv_set_tags inv_set_anchors : parinv.
#[local] Hint Extern 1 (st_ok _) => first [exact I | assumption] : parinv.

(* destruct the next [peek]; its parser is built by setters from one whose invariant is in the context *)
Ltac ppeek :=
  match goal with
  | |- context [peek ?q] =>
      let W := fresh "W" in
      assert (W : ParInv q) by auto with parinv; apply peek_inv in W;
      let sp := fresh "sp" in let tk := fresh "tk" in let q' := fresh "q" in
      let Hs := fresh "Hs" in let He := fresh "He" in let HP := fresh "HP" in
      destruct (peek q) as [[[sp tk] q']|[|? ?]|?]; cbn [fst snd] in W |- *;
      [ destruct W as ((Hs & He) & HP) | exact I | contradiction | contradiction ]
  end.

(* an event with its span and the next parser, or an error at a token marker *)
Ltac leaf :=
  cbn [epost qpost npost];
  first [ exact I | assumption | split; [split; assumption | auto with parinv] | auto with parinv ].

Lemma pop_ok q e sp (k : parser -> parser) :
  ParInv q -> tspan sp -> (forall x, ParInv x -> ParInv (k x)) ->
  epost (do x <- pop_state q; Ok ((e, sp), k x)).
Proof.
  intros HP Hsp Hk. apply pop_inv in HP. destruct (pop_state q); [|contradiction|exact I].
  split; [exact Hsp|apply Hk; exact HP].
Qed.

Ltac ppop := apply pop_ok; [auto with parinv | split; assumption | auto with parinv].

Lemma resolve_tag_ok p m h s : tmark m -> match resolve_tag p m h s with Err (PErr _ m') => tmark m' | _ => True end.
Proof.
  intros Hm. unfold resolve_tag. destruct (str_eqb h [bang; bang]); [exact I|].
  destruct (_ && _); [exact I|]. destruct (assoc h (p_tags p)); [exact I|]. destruct (is_named_handle h); [exact Hm|exact I].
Qed.
Ltac ptag :=
  match goal with
  | |- context [resolve_tag ?q ?m ?h ?s] =>
      let W := fresh "W" in
      assert (W : match resolve_tag q m h s with Err (PErr _ m') => tmark m' | _ => True end) by (apply resolve_tag_ok; assumption);
      destruct (resolve_tag q m h s) as [?|[|? ?]|?]; cbn beta iota; [ | exact I | exact W | exact I ]
  end.

Lemma node_props_ok p t :
  ParInv p -> tmark (sp_start (fst t)) -> npost (node_props p t).
Proof.
  intros HP Hm. rewrite node_props_if. unfold register_anchor.
  destruct (as_anchor (snd t)) as [name|]; [|destruct (as_tag (snd t)) as [[h s]|]; [|exact HP]].
  - cbv zeta. ppeek. destruct (as_tag tk) as [[h s]|]; [ptag|]; leaf.
  - cbv zeta. ptag. ppeek. destruct (as_anchor tk); leaf.
Qed.

Lemma empty_or_err_ok p aid tg sp : ParInv p -> tspan sp -> epost (empty_or_err p aid tg sp).
Proof.
  intros HP Hsp. unfold empty_or_err. destruct (has_props aid tg); [|exact (proj1 Hsp)].
  apply pop_ok; auto.
Qed.

Lemma node_content_ok p aid tg b i : ParInv p -> epost (node_content p aid tg b i).
Proof.
  intros HP. rewrite node_content_if. ppeek.
  assert (Hsp : tspan sp) by (split; assumption).
  destruct (as_scalar tk) as [[st v]|]; [ppop|].
  destruct (tis TBlockEntry tk); [destruct i; [leaf|apply empty_or_err_ok; assumption]|].
  destruct (tis TFlowSequenceStart tk); [leaf|].
  destruct (tis TFlowMappingStart tk); [leaf|].
  destruct (tis TBlockSequenceStart tk && b); [leaf|].
  destruct (tis TBlockMappingStart tk && b); [leaf|].
  apply empty_or_err_ok; assumption.
Qed.

Lemma parse_node_ok p b i : ParInv p -> epost (parse_node p b i).
Proof.
  intros HP. rewrite parse_node_if. ppeek.
  destruct (as_alias tk) as [name|].
  - apply pop_inv in HP0. destruct (pop_state q) as [q1| |]; [|contradiction|exact I].
    cbv zeta. destruct (assoc name _); leaf.
  - assert (W : npost (node_props q (sp, tk))) by (apply node_props_ok; assumption).
    destruct (node_props q (sp, tk)) as [[[aid tg] q2]|[|? ?]|?]; [apply node_content_ok; exact W|exact I|exact W|exact I].
Qed.

Lemma node_or_empty_ok l p st b i : ParInv p -> st_ok st -> epost (node_or_empty l p st b i).
Proof.
  intros HP Hst. unfold node_or_empty. ppeek.
  destruct (tin l tk); [leaf|apply parse_node_ok; auto with parinv].
Qed.

Ltac pnode := first [apply node_or_empty_ok | apply parse_node_ok]; auto with parinv.

Lemma stream_start_ok p : ParInv p -> epost (stream_start p).
Proof. intros HP. unfold stream_start. ppeek. destruct tk; leaf. Qed.

Lemma process_directives_ok fuel : forall p vs tags, ParInv p -> qpost (process_directives fuel p vs tags).
Proof.
  induction fuel as [|fuel IH]; intros p vs tags HP; [exact I|].
  cbn [process_directives]. ppeek. destruct tk; try solve [leaf].
  - destruct vs; [exact Hs|]. apply IH. auto with parinv.
  - destruct (_ && _); [exact Hs|]. apply IH. auto with parinv.
Qed.
Lemma skip_document_ends_ok fuel : forall p, ParInv p -> qpost (skip_document_ends fuel p).
Proof.
  induction fuel as [|fuel IH]; intros p HP; [exact I|].
  cbn [skip_document_ends]. ppeek. destruct tk; try (apply IH; auto with parinv); leaf.
Qed.
(* destruct a call whose result is a parser *)
Ltac pcallq lem :=
  match goal with
  | |- context [match ?c with Ok _ => _ | Err _ => _ | Panic _ => _ end] =>
      let W := fresh "W" in
      assert (W : qpost c) by (apply lem; auto with parinv);
      let q' := fresh "q" in
      destruct c as [q'|[|? ?]|?]; cbn beta iota; [ | exact I | exact W | exact I ]
  end.

Lemma explicit_document_start_ok p : ParInv p -> epost (explicit_document_start p).
Proof.
  intros HP. unfold explicit_document_start. pcallq process_directives_ok.
  ppeek. destruct tk; leaf.
Qed.

Lemma document_start_ok p implicit : ParInv p -> epost (document_start p implicit).
Proof.
  intros HP. rewrite document_start_if. pcallq skip_document_ends_ok. ppeek.
  destruct (tis TStreamEnd tk); [leaf|].
  destruct (negb implicit || tin _ tk); [apply explicit_document_start_ok; assumption|].
  pcallq process_directives_ok. leaf.
Qed.

Lemma document_content_ok p : ParInv p -> epost (document_content p).
Proof.
  intros HP. rewrite document_content_if. ppeek.
  destruct (tin _ tk); [ppop|pnode].
Qed.

Lemma document_end_ok p : ParInv p -> epost (document_end p).
Proof.
  intros HP. rewrite document_end_if. ppeek. cbv zeta.
  destruct (tis TDocumentEnd tk); cbn beta iota.
  - destruct (p_keep_tags _); leaf.
  - destruct (p_keep_tags _); ppeek; (destruct (tin _ tk0); leaf).
Qed.

Lemma block_mapping_key_ok p first : ParInv p -> epost (block_mapping_key p first).
Proof.
  intros HP. rewrite block_mapping_key_if. destruct first; [ppeek|]; ppeek.
  all: destruct (tis TKey _); [pnode|].
  all: destruct (tis TValue _); [leaf|].
  all: destruct (tis TBlockEnd _); [ppop|leaf].
Qed.

Lemma block_mapping_value_ok p : ParInv p -> epost (block_mapping_value p).
Proof.
  intros HP. rewrite block_mapping_value_if. ppeek.
  destruct (tis TValue tk); [pnode|leaf].
Qed.

Lemma flow_mapping_key_ok p first : ParInv p -> epost (flow_mapping_key p first).
Proof.
  intros HP. rewrite flow_mapping_key_if. destruct first; [ppeek|]; ppeek.
  all: destruct (tis TFlowMappingEnd _); [ppop|].
  2: ppeek; destruct (tis TFlowEntry _); [|leaf].
  all: ppeek.
  all: destruct (tis TKey _); [pnode|].
  all: destruct (tis TValue _); [leaf|].
  all: destruct (tis TFlowMappingEnd _); [ppop|pnode].
Qed.

Lemma flow_mapping_value_ok p empty : ParInv p -> epost (flow_mapping_value p empty).
Proof.
  intros HP. rewrite flow_mapping_value_if. destruct empty; ppeek; [leaf|].
  destruct (tis TValue tk); [|leaf]. ppeek.
  destruct (tin _ tk0); [leaf|pnode].
Qed.

Lemma flow_sequence_entry_ok p first : ParInv p -> epost (flow_sequence_entry p first).
Proof.
  intros HP. rewrite flow_sequence_entry_if. destruct first; [ppeek|]; ppeek.
  all: destruct (tis TFlowSequenceEnd _); [ppop|].
  2: destruct (tis TFlowEntry _); [|leaf].
  all: ppeek.
  all: destruct (tis TFlowSequenceEnd _); [ppop|].
  all: destruct (tis TKey _); [leaf|pnode].
Qed.

Lemma indentless_sequence_entry_ok p : ParInv p -> epost (indentless_sequence_entry p).
Proof.
  intros HP. rewrite indentless_sequence_entry_if. ppeek.
  destruct (tis TBlockEntry tk); [pnode|ppop].
Qed.

Lemma block_sequence_entry_ok p first : ParInv p -> epost (block_sequence_entry p first).
Proof.
  intros HP. rewrite block_sequence_entry_if. destruct first; [ppeek|]; ppeek.
  all: destruct (tis TBlockEnd _); [ppop|].
  all: destruct (tis TBlockEntry _); [pnode|leaf].
Qed.

Lemma flow_sequence_entry_mapping_key_ok p : ParInv p -> epost (flow_sequence_entry_mapping_key p).
Proof. intros HP. rewrite flow_sequence_entry_mapping_key_if. pnode. Qed.

Lemma flow_sequence_entry_mapping_value_ok p : ParInv p -> epost (flow_sequence_entry_mapping_value p).
Proof.
  intros HP. rewrite flow_sequence_entry_mapping_value_if. ppeek.
  destruct (tis TValue tk); [|leaf]. ppeek. cbv zeta.
  destruct (tin _ tk0); [leaf|pnode].
Qed.

(* one step of the parser: the event's span and the error marker are true marks, the invariant is kept *)
Theorem state_machine_ok p : ParInv p -> epost (state_machine p).
Proof.
  intros HP. unfold state_machine. destruct (p_state p) eqn:ES.
  - apply stream_start_ok; exact HP.
  - apply document_start_ok; exact HP.
  - apply document_start_ok; exact HP.
  - apply document_content_ok; exact HP.
  - apply document_end_ok; exact HP.
  - apply parse_node_ok; exact HP.
  - apply block_sequence_entry_ok; exact HP.
  - apply block_sequence_entry_ok; exact HP.
  - apply indentless_sequence_entry_ok; exact HP.
  - apply block_mapping_key_ok; exact HP.
  - apply block_mapping_key_ok; exact HP.
  - apply block_mapping_value_ok; exact HP.
  - apply flow_sequence_entry_ok; exact HP.
  - apply flow_sequence_entry_ok; exact HP.
  - apply flow_sequence_entry_mapping_key_ok; exact HP.
  - apply flow_sequence_entry_mapping_value_ok; exact HP.
  - pose proof HP as (_ & _ & HS & _). rewrite ES in HS.
    split; [split; exact HS|]. auto with parinv.
  - apply flow_mapping_key_ok; exact HP.
  - apply flow_mapping_key_ok; exact HP.
  - apply flow_mapping_value_ok; exact HP.
  - apply flow_mapping_value_ok; exact HP.
  - exact I.
Qed.

Definition ev_ok (es : event * span) : Prop := tspan (snd es).

Lemma parse_all_pos : forall fuel p se acc,
  ParInv p -> (forall site m, se = SError site m -> tmark m) -> Forall ev_ok acc ->
  let '(evs, r) := parse_all fuel p se acc in
  Forall ev_ok evs
  /\ (forall site m, r = PScanErr site m -> site <> 0%N -> tmark m)
  /\ (forall site m, r = PParseErr site m -> tmark m).
Proof.
  induction fuel as [|fuel IH]; intros p se acc HP HSE HA; cbn [parse_all].
  - split; [apply Forall_rev; exact HA|]. split; intros; discriminate.
  - assert (HB : let '(evs, r) :=
                   match state_machine p with
                   | Ok (ev, p') => parse_all fuel p' se (ev :: acc)
                   | Err PErrScan =>
                       (rev acc, match se with
                                 | SError s m => PScanErr s m
                                 | SPanic n => PPanic n
                                 | SFuel => PFuel
                                 | SEnded => PScanErr 0 {| m_index := 0; m_line := 0; m_col := 0 |}
                                 end)
                   | Err (PErr s m) => (rev acc, PParseErr s m)
                   | Panic n => (rev acc, PPanic n)
                   end in
                 Forall ev_ok evs
                 /\ (forall site m, r = PScanErr site m -> site <> 0%N -> tmark m)
                 /\ (forall site m, r = PParseErr site m -> tmark m)).
    { pose proof (state_machine_ok p HP) as W.
      destruct (state_machine p) as [[[ev sp] p']|[|s m]|n]; cbn [epost] in W.
      - destruct W as [Wsp WP]. apply IH; [exact WP|exact HSE|]. constructor; [exact Wsp|exact HA].
      - destruct se as [|s0 m0| |]; (split; [apply Forall_rev; exact HA|]); (split; [|intros; discriminate]);
          intros st1 mk1 E Hne; try discriminate E.
        + injection E as <- _. congruence.
        + injection E as _ <-. eapply HSE; reflexivity.
      - split; [apply Forall_rev; exact HA|]. split; [intros; discriminate|]. intros site m0 E. injection E as _ <-. exact W.
      - split; [apply Forall_rev; exact HA|]. split; intros; discriminate. }
    destruct (p_state p); try exact HB.
    split; [apply Forall_rev; exact HA|]. split; intros; discriminate.
Qed.

(* the initial parser over a token list whose markers are all true marks *)
Lemma parinv_init toks :
  Forall tmark (marks_of_tokens toks) ->
  ParInv {| p_toks := toks; p_token := None; p_states := []; p_state := SStreamStart;
            p_anchors := []; p_anchor_id := 1%N; p_tags := []; p_keep_tags := false |}.
Proof.
  intros H. apply marks_of_tokens_true in H. unfold ParInv. pfields. psplit; [exact H|intros; discriminate|exact I|constructor].
Qed.

Theorem parse_all_true_positions : forall fuel toks se,
  Forall tmark (marks_of_tokens toks) -> (forall site m, se = SError site m -> tmark m) ->
  let '(evs, r) := parse_all fuel {| p_toks := toks; p_token := None; p_states := []; p_state := SStreamStart;
                                    p_anchors := []; p_anchor_id := 1%N; p_tags := []; p_keep_tags := false |} se [] in
  Forall (fun es => true_span orig (snd es)) evs
  /\ (forall site m, r = PScanErr site m -> site <> 0%N -> tmark m)
  /\ (forall site m, r = PParseErr site m -> tmark m).
Proof.
  intros fuel toks se HT HSE. apply (parse_all_pos fuel _ se []); [apply parinv_init; exact HT|exact HSE|constructor].
Qed.

End PosParse.

Print Assumptions state_machine_ok.
Print Assumptions parse_all_true_positions.
