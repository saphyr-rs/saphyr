(* The loops that Model/SScalar.v writes as a local [fix] inside a definition, restated as top-level fixpoints for
   any input type, each with the equation (by reflexivity) that exposes it in the definition it comes from.  A proof
   about a scalar scanner rewrites with the equation and proves the named loop by induction on its fuel. *)
From Coq Require Import List NArith ZArith Bool.
Import ListNotations.
Require Import Parser SBase SPrim SDir SScalar.
Local Open Scope N_scope.
Local Open Scope mon_scope.

Section Loops.
Context {I : Type} (ops : InputOps I).
Notation M := (@M I).
(* [F] is the fuel of the scanner function the loop stands in, which the model hands unchanged to every loop that
   function starts; a loop here passes [F] on to the loops it calls and counts down its own [f], which the equations
   start at [F] *)
Variable F : nat.

(* scan_plain_scalar *)
Section Plain.
Variables (indent : Z) (start : marker).
Fixpoint plain_go (f : nat) (acc : list chr) (lb : bool) (tb : N) (ws : list chr) (endm : marker) {struct f}
    : M (list chr * marker) :=
  match f with
  | O => oof
  | S f =>
    look ops 4 ;;;
    s <- get ;;
    di <- (if sc_lws s && (m_col (sc_mark s) =? 0) then next_is_document_indicator ops else ret false) ;;
    c <- peek ops ;;
    if di || (c =? 35) then ret (acc, endm) else
    nc <- peekn ops 1 ;;
    let fl := 0 <? sc_flow_level s in
    if (match acc with [] => true | _ => false end) && fl && (c =? 45) && is_flow nc then fail 76 (sc_mark s) else
    cb <- (if is_blank_or_breakz c then ret false else next_can_be_plain_scalar ops fl) ;;
    r <- (if cb then
            let '(acc, lb, tb, ws) :=
              if sc_lws s then
                (if negb lb then (nls tb acc, false, 0, ws)
                 else if tb =? 0 then (32 :: acc, false, 0, ws)
                 else (nls tb acc, false, 0, ws))
              else (ws ++ acc, lb, tb, []) in
            modify (set_lws false) ;;;
            skip_non_blank ops ;;;
            look ops (bufmaxlen ops) ;;;
            acc <- plain_chunk ops F 0 (c :: acc) ;;
            m <- mark ;; ret (acc, lb, tb, ws, m)
          else ret (acc, lb, tb, ws, endm)) ;;
    let '(acc, lb, tb, ws, endm) := r in
    c <- peek ops ;;
    if negb (is_blank c || is_break c) then ret (acc, endm) else
    look ops 2 ;;;
    r <- plain_blanks ops F F indent start lb tb ws ;;
    let '(lb, tb, ws) := r in
    s <- get ;;
    if (sc_flow_level s =? 0) && (Z.of_N (m_col (sc_mark s)) <? indent)%Z then ret (acc, endm)
    else plain_go f acc lb tb ws endm
  end.
End Plain.

Lemma scan_plain_scalar_eq :
  scan_plain_scalar ops F =
  (unroll_non_block_indents ;;;
   s0 <- get ;;
   let indent := (sc_indent s0 + 1)%Z in
   let start := sc_mark s0 in
   if (0 <? sc_flow_level s0) && (Z.of_N (m_col start) <? indent)%Z then fail 75 start else
   r <- plain_go indent start F [] false 0 [] start ;;
   s <- get ;;
   (if sc_lws s then allow_simple_key else ret tt) ;;;
   match fst r with
   | [] => fail 78 start
   | _ => ret ({| sp_start := start; sp_end := snd r |}, TScalar Plain (rev (fst r)))
   end).
Proof. reflexivity. Qed.

(* one round of the chunked loop *)
Lemma plain_chunk_S fuel j acc :
  plain_chunk ops (S fuel) j acc =
  (if Nat.leb (bufmaxlen ops - 1) j then look ops (bufmaxlen ops) ;;; plain_chunk ops fuel 0 acc
   else
     b <- next_is ops is_blank_or_breakz ;; s <- get ;;
     cb <- (if b then ret false else next_can_be_plain_scalar ops (0 <? sc_flow_level s)) ;;
     if b || negb cb then ret acc
     else c <- peek ops ;; skip_non_blank ops ;;; plain_chunk ops fuel (S j) (c :: acc)).
Proof. reflexivity. Qed.

(* scan_flow_scalar *)
Section Flow.
Variables (single : bool) (start : marker).
Fixpoint flow_go (f : nat) (acc : list chr) (lb : bool) (tb : N) (ws : list chr) : M (list chr) :=
  match f with
  | O => oof
  | S f =>
    look ops 4 ;;;
    s <- get ;;
    di <- (if m_col (sc_mark s) =? 0 then next_is_document_indicator ops else ret false) ;;
    if di then fail 70 start else
    z <- next_is ops is_z ;;
    if z then fail 71 start else
    lt <- col_lt_indent ;;
    if lt then fail 72 start else
    r <- consume_nonws ops F single acc start ;;
    let '(acc, lbl) := r in
    c <- look_ch ops ;;
    if (single && (c =? 39)) || (negb single && (c =? 34)) then ret acc
    else
      r <- flow_blanks ops F lbl lb tb ws ;;
      let '(lbl, lb, tb, ws) := r in
      if lbl then
        if negb lb then flow_go f (nls tb acc) false 0 ws
        else if tb =? 0 then flow_go f (32 :: acc) false 0 ws
        else flow_go f (nls tb acc) false 0 ws
      else flow_go f (ws ++ acc) lb tb []
  end.
End Flow.

Lemma scan_flow_scalar_eq single :
  scan_flow_scalar ops F single =
  (start <- mark ;;
   skip_non_blank ops ;;;
   str <- flow_go single start F [] false 0 [] ;;
   skip_non_blank ops ;;;
   skip_ws_to_eol ops F SkipYes ;;;
   c <- peek ops ;; s <- get ;;
   let fl := 0 <? sc_flow_level s in
   if (((c =? 44) || (c =? 125) || (c =? 93)) && fl) || is_breakz c
      || ((c =? 58) && negb fl && (m_line start =? m_line (sc_mark s))) || ((c =? 58) && fl)
   then ret ({| sp_start := start; sp_end := sc_mark s |},
             TScalar (if single then SingleQuoted else DoubleQuoted) (rev str))
   else fail 74 (sc_mark s)).
Proof. reflexivity. Qed.

(* block scalars *)
(* scan_block_scalar_content_line: the buffered characters of the line, then the raw fast path *)
Fixpoint bs_go (f : nat) (acc : list chr) : M (list chr) :=
  match f with
  | O => oof
  | S f => e <- buf_is_empty ops ;;
           if e then ret acc else
           c <- peek ops ;; if is_breakz c then ret acc else skip_blank ops ;;; bs_go f (c :: acc)
  end.
Fixpoint bs_raw (f : nat) (acc : list chr) (n : N) : M (list chr) :=
  match f with
  | O => oof
  | S f => c <- raw_read ops ;;
           match c with
           | Some c => bs_raw f (c :: acc) (n + 1)
           | None => adv_mark n ;;; ret acc
           end
  end.
Lemma content_line_eq acc :
  scan_block_scalar_content_line ops F acc =
  (acc <- bs_go F acc ;; e <- buf_is_empty ops ;; if e then bs_raw F acc 0 else ret acc).
Proof. reflexivity. Qed.

(* skip_block_scalar_indent: [bs_spp] is the "consume the indentation" phase of one round, [bs_wide] its loop for an
   indentation that does not fit the buffer *)
Section Wide.
Variable indent : N.
Fixpoint bs_wide (f : nat) : M unit :=
  match f with
  | O => oof
  | S f =>
    look ops (bufmaxlen ops) ;;; skip_spaces_to ops F indent true ;;;
    k <- col ;; e <- buf_is_empty ops ;;
    c <- (if e then ret 32 else peek ops) ;;
    if (k =? indent) || (negb e && negb (c =? 32)) then ret tt else bs_wide f
  end.
End Wide.
(* the part of one round of skip_block_scalar_indent that takes the spaces of a line (in scanner.rs the if / else on
   `indent < bufmaxlen - 2`), in front of the test for a line break *)
Definition bs_spp (indent : N) : M unit :=
  if indent <? N.of_nat (bufmaxlen ops - 2) then look ops (bufmaxlen ops) ;;; skip_spaces_to ops F indent false
  else bs_wide indent F ;;; look ops 2.
Lemma sbsi_eq fuel indent breaks :
  skip_block_scalar_indent ops F (S fuel) indent breaks =
  ((if Nat.ltb (bufmaxlen ops) 2 then panic 121 else ret tt) ;;;
   bs_spp indent ;;;
   b <- next_is ops is_break ;;
   if b then skip_break ops ;;; skip_block_scalar_indent ops F fuel indent (breaks + 1) else ret breaks).
Proof. reflexivity. Qed.

(* skip_first_line_indent: the spaces of one line *)
Fixpoint bs_sfl (f : nat) : M unit :=
  match f with
  | O => oof
  | S f => c <- look_ch ops ;; if c =? 32 then skip_blank ops ;;; bs_sfl f else ret tt
  end.
Lemma sfli_eq fuel maxi breaks :
  skip_first_line_indent ops F (S fuel) maxi breaks =
  (bs_sfl F ;;; k <- col ;;
   b <- next_is ops is_break ;;
   if b then look ops 2 ;;; skip_break ops ;;; skip_first_line_indent ops F fuel (N.max maxi k) (breaks + 1)
   else ret (N.max maxi k, breaks)).
Proof. reflexivity. Qed.

End Loops.
