(* C15, parser half, ingredient (C) of Proofs/DocIndep.v: a larger anchor id counter only renumbers.
   [state_machine_shift]: for every parser state p (any tokens, any state stack) with a non-zero anchor id counter, the
   state machine run on p with the counter raised by d and every recorded anchor id raised by d does exactly what it
   does on p, with every anchor id and alias id of the event raised by d. *)
From Coq Require Import List NArith Bool Lia.
Import ListNotations.
Require Import Parser C02base DocReset.
Require Import ParserView.
Local Open Scope N_scope.

(* (C) renumbering *)
Definition shift_anchors (d : N) (l : list (str * N)) : list (str * N) := map (fun kv => (fst kv, snd kv + d)) l.
Definition shiftp (d : N) (p : parser) : parser := set_anchors p (shift_anchors d (p_anchors p)) (p_anchor_id p + d).
Definition sh (d aid : N) : N := if aid =? 0 then 0 else aid + d.
Definition shift_ev (d : N) (e : event) : event :=
  match e with
  | EAlias id => EAlias (id + d)
  | EScalar v st aid tg => EScalar v st (sh d aid) tg
  | ESequenceStart aid tg => ESequenceStart (sh d aid) tg
  | EMappingStart aid tg => EMappingStart (sh d aid) tg
  | e => e
  end.
Definition shift_evsp (d : N) (e : event * span) : event * span := (shift_ev d (fst e), snd e).
Definition shift_res (d : N) (r : res ((event * span) * parser)) : res ((event * span) * parser) :=
  match r with
  | Ok ((e, sp), q) => Ok ((shift_ev d e, sp), shiftp d q)
  | Err e => Err e
  | Panic n => Panic n
  end.

Lemma assoc_shift d k l : assoc k (shift_anchors d l) = option_map (fun v => v + d) (assoc k l).
Proof. induction l as [|[k' v] r IH]; cbn; [reflexivity|]. destruct (str_eqb k k'); [reflexivity|exact IH]. Qed.
Lemma assoc_set_shift d k v l : assoc_set k (v + d) (shift_anchors d l) = shift_anchors d (assoc_set k v l).
Proof.
  induction l as [|[k' v'] r IH]; cbn; [reflexivity|]. destruct (str_eqb k k'); cbn; [reflexivity|].
  f_equal. exact IH.
Qed.

Lemma peek_shift d p :
  peek (shiftp d p) = match peek p with Ok (t, q) => Ok (t, shiftp d q) | Err e => Err e | Panic n => Panic n end.
Proof. unfold peek. cbn. destruct (p_token p); [reflexivity|]. destruct (p_toks p); reflexivity. Qed.
Lemma pop_state_shift d p :
  pop_state (shiftp d p) = match pop_state p with Ok q => Ok (shiftp d q) | Err e => Err e | Panic n => Panic n end.
Proof. unfold pop_state. cbn. destruct (p_states p); reflexivity. Qed.
Lemma skip_shift d p : skip (shiftp d p) = shiftp d (skip p).
Proof. reflexivity. Qed.
Lemma set_state_shift d p s : set_state (shiftp d p) s = shiftp d (set_state p s).
Proof. reflexivity. Qed.
Lemma push_state_shift d p s : push_state (shiftp d p) s = shiftp d (push_state p s).
Proof. reflexivity. Qed.
Lemma set_tags_shift d p t : set_tags (shiftp d p) t = shiftp d (set_tags p t).
Proof. reflexivity. Qed.
Lemma resolve_tag_shift d p m h s : resolve_tag (shiftp d p) m h s = resolve_tag p m h s.
Proof. reflexivity. Qed.

Lemma peek_aid p t q : peek p = Ok (t, q) -> p_anchor_id q = p_anchor_id p.
Proof. intros H. apply peek_other_fields in H. tauto. Qed.

Lemma register_anchor_shift d p name :
  register_anchor (shiftp d p) name = (fst (register_anchor p name) + d, shiftp d (snd (register_anchor p name))).
Proof.
  unfold register_anchor, shiftp, set_anchors. cbn. f_equal. f_equal; [apply assoc_set_shift|lia].
Qed.

Ltac shn := rewrite ?skip_shift, ?set_state_shift, ?push_state_shift, ?set_tags_shift, ?resolve_tag_shift.
(* destruct the next peek / pop of the ORIGINAL parser, after moving the shift outwards; the kind of the token stays
   a variable, to be asked about by [tis] and [tin] *)
Ltac shpeek :=
  shn; rewrite peek_shift;
  match goal with
  | Hc : p_token ?x = Some ?t |- context [match peek ?x with _ => _ end] =>
      rewrite (peek_cached x t Hc); cbn [fst snd]
  | |- context [match peek ?x with _ => _ end] =>
      let E := fresh "E" in let Hc := fresh "Hc" in let sp := fresh "sp" in let k := fresh "k" in let q := fresh "q" in
      destruct (peek x) as [[[sp k] q]| |] eqn:E;
      [pose proof (peek_fills _ _ _ E) as Hc; apply peek_aid in E; cbn [fst snd]|reflexivity|reflexivity]
  end.
Ltac shpop :=
  shn; rewrite pop_state_shift;
  match goal with
  | |- context [match pop_state ?q with _ => _ end] => destruct (pop_state q); [|reflexivity|reflexivity]
  end; cbv beta iota.

Lemma sh_pos d aid : aid <> 0 -> sh d aid = aid + d.
Proof. intros H. unfold sh. destruct (N.eqb_spec aid 0); [contradiction|reflexivity]. Qed.

Lemma has_props_sh d aid tg : has_props (sh d aid) tg = has_props aid tg.
Proof.
  unfold has_props, sh. destruct tg; [reflexivity|]. cbn. destruct (N.eqb_spec aid 0) as [->|H]; [reflexivity|].
  destruct (N.ltb_spec 0 (aid + d)), (N.ltb_spec 0 aid); try reflexivity; lia.
Qed.

Definition shift_props (d : N) (r : res (N * option tag * parser)) : res (N * option tag * parser) :=
  match r with
  | Ok (aid, tg, q) => Ok (sh d aid, tg, shiftp d q)
  | Err e => Err e
  | Panic n => Panic n
  end.

Lemma node_props_shift d p t : p_anchor_id p <> 0 -> node_props (shiftp d p) t = shift_props d (node_props p t).
Proof.
  intros Ha. rewrite !node_props_if.
  destruct (as_anchor (snd t)) as [name|]; [|destruct (as_tag (snd t)) as [[h s]|]; [|reflexivity]]; cbv zeta.
  - shn. rewrite register_anchor_shift. unfold register_anchor. cbn [fst snd].
    shpeek. destruct (as_tag k) as [[h s]|]; cbv zeta.
    + shn. destruct (resolve_tag _ _ _ _); cbn [shift_props]; try reflexivity. rewrite sh_pos by exact Ha. reflexivity.
    + cbn [shift_props]. rewrite sh_pos by exact Ha. reflexivity.
  - shn. destruct (resolve_tag _ _ _ _); try reflexivity.
    shpeek. destruct (as_anchor k) as [name|]; cbv zeta; [|reflexivity].
    shn. rewrite register_anchor_shift. unfold register_anchor. cbn [fst snd shift_props].
    rewrite sh_pos by (cbn in *; congruence). reflexivity.
Qed.

Lemma empty_or_err_shift d p aid tg sp :
  empty_or_err (shiftp d p) (sh d aid) tg sp = shift_res d (empty_or_err p aid tg sp).
Proof.
  unfold empty_or_err. rewrite has_props_sh. destruct (has_props aid tg); [|reflexivity].
  shpop. reflexivity.
Qed.

Lemma node_content_shift d p aid tg b i :
  node_content (shiftp d p) (sh d aid) tg b i = shift_res d (node_content p aid tg b i).
Proof.
  rewrite !node_content_if. shpeek. destruct (as_scalar k) as [[st v]|]; [shpop; reflexivity|].
  destruct (tis TBlockEntry k); [destruct i; [reflexivity|apply empty_or_err_shift]|].
  destruct (tis TFlowSequenceStart k); [reflexivity|].
  destruct (tis TFlowMappingStart k); [reflexivity|].
  destruct (tis TBlockSequenceStart k && b); [reflexivity|].
  destruct (tis TBlockMappingStart k && b); [reflexivity|].
  apply empty_or_err_shift.
Qed.

Lemma parse_node_shift d p b i : p_anchor_id p <> 0 -> parse_node (shiftp d p) b i = shift_res d (parse_node p b i).
Proof.
  intros Ha. rewrite !parse_node_if. shpeek. destruct (as_alias k) as [name|].
  - shpop. shn. cbn [p_anchors shiftp set_anchors skip set_tok]. rewrite assoc_shift.
    destruct (assoc name _); reflexivity.
  - rewrite node_props_shift by congruence.
    destruct (node_props q (sp, k)) as [[[aid tg] q']| |]; [|reflexivity..]. apply node_content_shift.
Qed.

Ltac aid_tac := cbn [p_anchor_id skip set_tok set_state push_state set_states set_tags] in *; congruence.

Lemma node_or_empty_shift d l p st b i : p_anchor_id p <> 0 ->
  node_or_empty l (shiftp d p) st b i = shift_res d (node_or_empty l p st b i).
Proof.
  intros Ha. unfold node_or_empty. shpeek. destruct (tin l k); [reflexivity|].
  shn. apply parse_node_shift. aid_tac.
Qed.

(* every state function commutes with the shift: one step of the walk, chosen by the head of the left side *)
Ltac shauto1 :=
  lazymatch goal with
  | |- parse_node _ _ _ = shift_res _ (parse_node _ _ _) => shn; apply parse_node_shift; aid_tac
  | |- node_or_empty _ _ _ _ _ = shift_res _ (node_or_empty _ _ _ _ _) => shn; apply node_or_empty_shift; aid_tac
  | |- Ok _ = shift_res _ (Ok _) => reflexivity
  | |- Err _ = shift_res _ (Err _) => reflexivity
  | |- (match pop_state _ with _ => _ end) = _ => shpop
  | |- context [if tis ?c ?k then _ else _] => destruct (tis c k)
  | |- context [if tin ?l ?k then _ else _] => destruct (tin l k)
  | |- _ = _ => shpeek
  end.
Ltac shauto := repeat shauto1.

Section Shift.
Variable d : N.

Lemma stream_start_shift p : stream_start (shiftp d p) = shift_res d (stream_start p).
Proof. unfold stream_start. shpeek. destruct k; reflexivity. Qed.

Lemma process_directives_shift fuel : forall p vs tags,
  process_directives fuel (shiftp d p) vs tags =
  match process_directives fuel p vs tags with Ok q => Ok (shiftp d q) | Err e => Err e | Panic n => Panic n end.
Proof.
  induction fuel as [|fuel IH]; intros p vs tags; cbn [process_directives]; [reflexivity|].
  shpeek. destruct k; try reflexivity.
  - destruct vs; [reflexivity|]. shn. apply IH.
  - destruct (_ && _); [reflexivity|]. shn. apply IH.
Qed.

Lemma skip_document_ends_shift fuel : forall p,
  skip_document_ends fuel (shiftp d p) =
  match skip_document_ends fuel p with Ok q => Ok (shiftp d q) | Err e => Err e | Panic n => Panic n end.
Proof.
  induction fuel as [|fuel IH]; intros p; [reflexivity|]. rewrite !skip_document_ends_if.
  shpeek. destruct (tis TDocumentEnd k); [|reflexivity]. shn. apply IH.
Qed.

Lemma explicit_document_start_shift p : explicit_document_start (shiftp d p) = shift_res d (explicit_document_start p).
Proof.
  unfold explicit_document_start. cbn [p_toks shiftp set_anchors]. rewrite process_directives_shift.
  destruct (process_directives _ p false []); try reflexivity. shpeek. destruct k; reflexivity.
Qed.

Lemma document_start_shift p implicit : document_start (shiftp d p) implicit = shift_res d (document_start p implicit).
Proof.
  rewrite !document_start_if. cbn [p_toks shiftp set_anchors]. rewrite skip_document_ends_shift.
  destruct (skip_document_ends _ p); try reflexivity.
  shpeek. destruct (tis TStreamEnd k); [reflexivity|].
  destruct (negb implicit || tin _ k); [apply explicit_document_start_shift|].
  cbn [p_toks shiftp set_anchors]. rewrite process_directives_shift.
  destruct (process_directives _ q false []); reflexivity.
Qed.

Lemma document_content_shift p : p_anchor_id p <> 0 -> document_content (shiftp d p) = shift_res d (document_content p).
Proof.
  intros Ha. rewrite !document_content_if. shpeek. destruct (tin _ k); [shpop; reflexivity|].
  apply parse_node_shift. congruence.
Qed.

(* what the end of a document does to the tables *)
Definition end_document (q : parser) : parser :=
  let q := if p_keep_tags q then q else set_tags q [] in set_anchors q [] (p_anchor_id q).

Lemma document_end_eq p :
  document_end p =
  do (t, q) <- peek p;
  if tis TDocumentEnd (snd t) then Ok ((EDocumentEnd, fst t), set_state (end_document (skip q)) SImplicitDocumentStart)
  else
    do (t2, q) <- peek (end_document q);
    if tin directive_kinds (snd t2) then Err (PErr 4 (sp_start (fst t2)))
    else Ok ((EDocumentEnd, fst t), set_state q SDocumentStart).
Proof.
  rewrite document_end_if. destruct (peek p) as [[[sp k] q]| |]; [|reflexivity..].
  cbn [fst snd]. destruct (tis TDocumentEnd k); reflexivity.
Qed.

Lemma end_document_shift q : end_document (shiftp d q) = shiftp d (end_document q).
Proof. unfold end_document. cbn [p_keep_tags shiftp set_anchors]. destruct (p_keep_tags q); reflexivity. Qed.

Lemma document_end_shift p : document_end (shiftp d p) = shift_res d (document_end p).
Proof.
  rewrite !document_end_eq. shpeek. destruct (tis TDocumentEnd k).
  - rewrite skip_shift, end_document_shift. reflexivity.
  - rewrite end_document_shift. shpeek. destruct (tin directive_kinds k0); reflexivity.
Qed.

Lemma block_mapping_key_shift p first : p_anchor_id p <> 0 ->
  block_mapping_key (shiftp d p) first = shift_res d (block_mapping_key p first).
Proof. intros Ha. rewrite !block_mapping_key_if. destruct first; shauto. Qed.
Lemma block_mapping_value_shift p : p_anchor_id p <> 0 ->
  block_mapping_value (shiftp d p) = shift_res d (block_mapping_value p).
Proof. intros Ha. rewrite !block_mapping_value_if. shauto. Qed.
Lemma flow_mapping_key_shift p first : p_anchor_id p <> 0 ->
  flow_mapping_key (shiftp d p) first = shift_res d (flow_mapping_key p first).
Proof. intros Ha. rewrite !flow_mapping_key_if. destruct first; shauto. Qed.
Lemma flow_mapping_value_shift p empty : p_anchor_id p <> 0 ->
  flow_mapping_value (shiftp d p) empty = shift_res d (flow_mapping_value p empty).
Proof. intros Ha. rewrite !flow_mapping_value_if. destruct empty; shauto. Qed.
Lemma flow_sequence_entry_shift p first : p_anchor_id p <> 0 ->
  flow_sequence_entry (shiftp d p) first = shift_res d (flow_sequence_entry p first).
Proof. intros Ha. rewrite !flow_sequence_entry_if. destruct first; shauto. Qed.
Lemma indentless_sequence_entry_shift p : p_anchor_id p <> 0 ->
  indentless_sequence_entry (shiftp d p) = shift_res d (indentless_sequence_entry p).
Proof. intros Ha. rewrite !indentless_sequence_entry_if. shauto. Qed.
Lemma block_sequence_entry_shift p first : p_anchor_id p <> 0 ->
  block_sequence_entry (shiftp d p) first = shift_res d (block_sequence_entry p first).
Proof. intros Ha. rewrite !block_sequence_entry_if. destruct first; shauto. Qed.
Lemma fsem_key_shift p : p_anchor_id p <> 0 ->
  flow_sequence_entry_mapping_key (shiftp d p) = shift_res d (flow_sequence_entry_mapping_key p).
Proof. intros Ha. rewrite !flow_sequence_entry_mapping_key_if. shauto. Qed.
Lemma fsem_value_shift p : p_anchor_id p <> 0 ->
  flow_sequence_entry_mapping_value (shiftp d p) = shift_res d (flow_sequence_entry_mapping_value p).
Proof. intros Ha. rewrite !flow_sequence_entry_mapping_value_if. shauto. Qed.

Theorem state_machine_shift p : p_anchor_id p <> 0 -> state_machine (shiftp d p) = shift_res d (state_machine p).
Proof.
  intros Ha. unfold state_machine. cbn [p_state shiftp set_anchors].
  destruct (p_state p);
    first [ apply stream_start_shift | apply document_start_shift | apply document_content_shift; exact Ha
          | apply document_end_shift | apply parse_node_shift; exact Ha
          | apply block_mapping_key_shift; exact Ha | apply block_mapping_value_shift; exact Ha
          | apply block_sequence_entry_shift; exact Ha | apply flow_sequence_entry_shift; exact Ha
          | apply flow_mapping_key_shift; exact Ha | apply flow_mapping_value_shift; exact Ha
          | apply indentless_sequence_entry_shift; exact Ha | apply fsem_key_shift; exact Ha
          | apply fsem_value_shift; exact Ha | reflexivity ].
Qed.

End Shift.
