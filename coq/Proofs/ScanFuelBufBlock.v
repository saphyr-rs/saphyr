(* The one-sided calculi and the movement relation of ScanPairBlock.v, read over the definitions of ScanFuelBuf.v:
   [wp1t] is [ScanPairBlock.wp1g true], the buffered side's calculus in which OutOfFuel is forbidden. *)
From Coq Require Import List NArith ZArith Bool Arith Lia.
Import ListNotations.
Require Import Parser SBase SPrim ScanFuelBuf.
Require ScanPairBlock.
Local Open Scope nat_scope.

(* one-sided partial-correctness calculus (any back-end) *)
Definition wp1 {J A} (m : @M J A) (P : A -> sc J -> Prop) (s : sc J) : Prop :=
  match m s with Ok (a, t) => P a t | Err _ _ => False | _ => True end.

Lemma wp1_oof {J A} (P : A -> sc J -> Prop) s : wp1 (@oof J A) P s.
Proof. exact (ScanPairBlock.wp1_oof P s). Qed.
Lemma wp1_panic {J A} site (P : A -> sc J -> Prop) s : wp1 (@panic J A site) P s.
Proof. exact (ScanPairBlock.wp1_panic site P s). Qed.

(* the same calculus with OutOfFuel FORBIDDEN: for the buffered side, whose fuel must be shown to suffice *)
Definition wp1t {J A} (m : @M J A) (P : A -> sc J -> Prop) (s : sc J) : Prop :=
  match m s with Ok (a, t) => P a t | Err _ _ => False | Panic _ => True | OutOfFuel => False end.
Lemma wp1t_panic {J A} site (P : A -> sc J -> Prop) s : wp1t (@panic J A site) P s.
Proof. exact (ScanPairBlock.wp1b_panic true site P s). Qed.

(* string-side states: consumed characters and mark movement *)
Notation mcol s := (m_col (sc_mark s)).

(* [Mv g j a g']: g' is g with j characters consumed and the mark advanced by a (same line); the look-ahead
   counter is not part of it (the state relation [SR] does not see it either) *)
Definition Mv (g : st1) (j : nat) (a : N) (g' : st1) : Prop :=
  rem1 g' = skipn j (rem1 g) /\ erase g' = set_mark (adv a (sc_mark g)) (erase g).

(* [P0]: the column is not beyond the target, or the next character is not a space (holds whenever
   skip_block_scalar_indent is entered: right after a line break, or at the end of the input) *)
Definition P0 (indent : N) (g : st1) : Prop := (mcol g <= indent)%N \/ rn1 g 0 <> 32%N.
Lemma P0_Mv0 indent g g' : Mv g 0 0 g' -> P0 indent g -> P0 indent g'.
Proof. exact (ScanPairBlock.P0_Mv0 indent g g'). Qed.
