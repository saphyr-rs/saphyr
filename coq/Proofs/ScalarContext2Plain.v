(* C04 in document context, part 3: scan_plain_scalar on a presentation of the specification that is followed by spaces and
   line feeds only, WITH the input that is left: nothing ([]; plain_blanks consumes the trailing blanks and breaks up to the
   end of the input).  The line lemmas of PlainScalarProofs.v ([line_run], [brk_step]) are generic in the postcondition; the
   follower analysis and the induction over the continuation lines are redone here with a postcondition [Qe] that keeps the
   final state.  The theorem for this follower class, [scan_plain_scalar_ws], is drawn from the general one in
   Proofs/ScalarContext2PlainSib.v. *)
From Coq Require Import List NArith ZArith Bool Arith Lia.
Import ListNotations.
Require Import Parser SBase SScalar FlowFold FlowScalarProofs PlainScalarProofs ScalarContextQuoted.
Open Scope N_scope.
Open Scope mon_scope.

(* ws_only followers are followers of the specification *)
Lemma ws_after_break_ok flow indent : forall r col, ws_only r = true -> after_break_ok flow indent col r = true.
Proof.
  induction r as [|c r IH]; intros col H; [reflexivity|].
  cbn [ws_only forallb] in H. apply andb_prop in H as [Hc H]. fold (ws_only r) in H.
  cbn [after_break_ok]. apply orb_prop in Hc as [Hc|Hc]; apply N.eqb_eq in Hc; subst c.
  - change (10 =? 32) with false. change (10 =? 10) with true. cbv iota. apply IH, H.
  - change (32 =? 32) with true. cbv iota. apply IH, H.
Qed.

Lemma ws_only_plain_follower flow indent rest : ws_only rest = true -> plain_follower_ok flow indent rest = true.
Proof.
  intros H. unfold plain_follower_ok. pose proof (ws_only_drop rest H) as Hd. pose proof (ws_only_drop_head rest H) as Hh.
  destruct (drop_leading rest) as [|c r']; [reflexivity|]. cbn [nth] in Hh. destruct Hh as [Hh|Hh]; subst c.
  - cbn [ws_only forallb] in Hd. discriminate Hd.
  - change (is_break 10) with true. cbv iota. apply ws_after_break_ok, Hd.
Qed.

Section PlainWs.
Variable F : nat.
Variable s0 : sc strin.
Variable start : marker.
Variable L : nat.
Hypothesis HL : (128 <= L)%nat.
Variable n : nat.
Hypothesis Hn : (sc_indent s0 + 1 <= Z.of_nat n)%Z.
Notation fl := (0 <? sc_flow_level s0).
Notation indent := (sc_indent s0 + 1)%Z.
Notation st := (st_with s0).
Notation pblanks := (plain_blanks str_ops F).
Notation achunk := (after_chunk F s0 start).

(* the scalar is returned and the input is consumed *)
Definition Qe (final : list chr) (o : outcome (list chr * marker * sc strin)) : Prop :=
  exists endm l' m' w', o = Ok ((final, endm), st [] l' m' w').

Lemma pafter_eof f acc endm lb tb ws l m w : acc <> [] ->
  Qe acc (pafter_blanks indent (ploop F indent start (S f)) acc endm (lb, tb, ws) (st [] l m w)).
Proof.
  intros Hacc. unfold pafter_blanks. mstep (get_st s0 [] l m w). cbn [sc_flow_level sc_mark st_with].
  destruct ((sc_flow_level s0 =? 0) && (Z.of_N (m_col m) <? indent)%Z); [eexists; eexists; eexists; eexists; reflexivity|].
  cbn [ploop]. rewrite (pbody_end F s0 start L HL n) by (try assumption; try reflexivity; right; left; reflexivity).
  eexists; eexists; eexists; eexists; reflexivity.
Qed.

(* behind a line break: spaces and line feeds up to the end of the input *)
Lemma ws_break_run : forall r fb f lb tb ws m acc endm,
  ws_only r = true -> (length r < fb)%nat -> acc <> [] ->
  Qe acc (bind (pblanks fb indent start lb tb ws) (pafter_blanks indent (ploop F indent start (S f)) acc endm) (st r L m true)).
Proof.
  induction r as [|c r IH]; intros fb f lb tb ws m acc endm H Hfb Hacc; (destruct fb as [|fb]; [cbn in Hfb; lia|]).
  - rewrite (bind_Ok _ _ _ _ _ (pb_stop F s0 start L fb lb tb ws [] m true eq_refl eq_refl)). apply pafter_eof, Hacc.
  - cbn [ws_only forallb] in H. apply andb_prop in H as [Hc H]. fold (ws_only r) in H.
    apply orb_prop in Hc as [Hc|Hc]; apply N.eqb_eq in Hc; subst c.
    + change (10 :: r) with (nl_src NlLF ++ r).
      rewrite (bind_congr _ _ _ _ _ (pb_nl_more F s0 start L HL NlLF fb lb tb ws r m ltac:(intros E; discriminate E))).
      apply IH; [exact H|cbn [length] in Hfb; lia|exact Hacc].
    + rewrite (bind_congr _ _ _ _ _ (pb_blank_skip F s0 start L HL fb lb tb ws 32 r m eq_refl ltac:(discriminate))).
      apply IH; [exact H|cbn [length] in Hfb; lia|exact Hacc].
Qed.

(* behind the last word *)
Lemma ws_line_run : forall r fb f ws m acc endm,
  ws_only r = true -> (length r < fb)%nat -> acc <> [] ->
  Qe acc (bind (pblanks fb indent start false 0 ws) (pafter_blanks indent (ploop F indent start (S f)) acc endm) (st r L m false)).
Proof.
  induction r as [|c r IH]; intros fb f ws m acc endm H Hfb Hacc; (destruct fb as [|fb]; [cbn in Hfb; lia|]).
  - rewrite (bind_Ok _ _ _ _ _ (pb_stop F s0 start L fb false 0 ws [] m false eq_refl eq_refl)). apply pafter_eof, Hacc.
  - cbn [ws_only forallb] in H. apply andb_prop in H as [Hc H]. fold (ws_only r) in H.
    apply orb_prop in Hc as [Hc|Hc]; apply N.eqb_eq in Hc; subst c.
    + change (10 :: r) with (nl_src NlLF ++ r).
      rewrite (bind_congr _ _ _ _ _ (pb_nl_first F s0 start L HL NlLF fb false 0 ws r m ltac:(intros E; discriminate E))).
      apply ws_break_run; [exact H|cbn [length] in Hfb; lia|exact Hacc].
    + rewrite (bind_congr _ _ _ _ _ (pb_blank_ws F s0 start L HL fb false 0 ws 32 r m eq_refl)).
      apply IH; [exact H|cbn [length] in Hfb; lia|exact Hacc].
Qed.

Lemma ws_follower_run rest : ws_only rest = true ->
  forall f acc m, (length rest + 2 <= F)%nat -> acc <> [] -> col_ok s0 m ->
    Qe acc (achunk (ploop F indent start (S f)) false 0 [] acc (st rest L m false)).
Proof.
  intros H f acc m HF Hacc Hm. rewrite after_chunk_st. destruct rest as [|c r].
  - rewrite ptail_stop by reflexivity. eexists; eexists; eexists; eexists; reflexivity.
  - rewrite (ptail_blanks F s0 start L HL n).
    2:{ cbn [ws_only forallb] in H. apply andb_prop in H as [Hc _]. cbn [nth].
        apply orb_prop in Hc as [Hc|Hc]; apply N.eqb_eq in Hc; subst c; reflexivity. }
    apply ws_line_run; [exact H|lia|exact Hacc].
Qed.

(* the continuation lines, for any postcondition that the run over the follower establishes *)
Lemma lines_run_gen rest (Q : list chr -> outcome (list chr * marker * sc strin) -> Prop) :
  plain_follower_ok fl (sc_indent s0) rest = true ->
  (forall f acc m, (length rest + 2 <= F)%nat -> acc <> [] -> col_ok s0 m ->
     Q acc (achunk (ploop F indent start (S f)) false 0 [] acc (st rest L m false))) ->
  forall more f acc m,
  more_wf fl n more = true ->
  (length (src_more more ++ rest) + 2 <= f)%nat -> (2 * length (src_more more ++ rest) + 6 <= F)%nat ->
  acc <> [] -> col_ok s0 m ->
  Q (rev (rest_text more) ++ acc) (achunk (ploop F indent start f) false 0 [] acc (st (src_more more ++ rest) L m false)).
Proof.
  intros Hfollow Hrun.
  induction more as [|[b line] more IH]; intros f acc m Hwf Hf HF Hacc Hm.
  - destruct f as [|f]; [lia|]. cbn [src_more flat_map app rest_text rev] in *.
    apply Hrun; [lia|exact Hacc|exact Hm].
  - assert (Hwf0 := Hwf).
    cbn [more_wf forallb fst snd] in Hwf. apply andb_prop in Hwf. destruct Hwf as [Hhd Hwf'].
    do 3 (apply andb_prop in Hhd; destruct Hhd as [Hhd ?]).
    match goal with H : negb (bl_escaped b) = true |- _ => apply negb_true_iff in H; rename H into He end.
    match goal with H : negb (marker_at_col0 _ _) = true |- _ => apply negb_true_iff in H; rename H into Hmk end.
    cbn [src_more flat_map fst snd] in *. fold (src_more more) in *.
    rewrite <- !app_assoc in *. rewrite !app_length in Hf, HF.
    cbn [rest_text]. rewrite !rev_app_distr, <- !app_assoc.
    apply (brk_step F s0 start L HL n Hn (src_more more ++ rest) (fun a o => Q (rev (rest_text more) ++ a) o)
             (length (src_more more ++ rest) + 2)%nat); try assumption.
    + intros f' acc' m' HB' Hacc' Hm'. apply IH; try assumption. rewrite ?app_length in *. lia.
    + apply (stops_src_more F s0 start L HL n rest Hfollow). exact Hwf'.
    + rewrite ?app_length in *. lia.
    + assert (1 <= length (render_brk b))%nat by (unfold render_brk; rewrite !app_length; pose proof (nl_src_len (bl_nl b)); lia).
      rewrite ?app_length in *. lia.
Qed.

Section Lines.
Variable rest : list N.
Hypothesis Hws : ws_only rest = true.

Lemma lines_run_ws : forall more f acc m,
  more_wf fl n more = true ->
  (length (src_more more ++ rest) + 2 <= f)%nat -> (2 * length (src_more more ++ rest) + 6 <= F)%nat ->
  acc <> [] -> col_ok s0 m ->
  Qe (rev (rest_text more) ++ acc) (achunk (ploop F indent start f) false 0 [] acc (st (src_more more ++ rest) L m false)).
Proof.
  exact (lines_run_gen rest Qe (ws_only_plain_follower fl (sc_indent s0) rest Hws) (ws_follower_run rest Hws)).
Qed.
End Lines.
End PlainWs.
