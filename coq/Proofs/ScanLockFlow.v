(* The QUOTED (flow) SCALAR family under any lock.

   scan_flow_scalar and its helpers (read_hex, resolve_escape, consume_nonws, flow_blanks, the main loop) run in
   iteration-LOCKSTEP: a line break is consumed as one step by [skip_break] (flow_blanks: line folding - breaks are
   COUNTED, the text pushed is [nls tb acc], so the scalar text is equal) or by [skip_linebreak] (the escaped line
   break of a double-quoted scalar: [\] is not a line feed, hence position 1 is aligned and [is_break nc] gives the
   same answer; then [look 3; skip_non_blank; skip_linebreak]).  Every other character that is consumed or stored has
   just been tested by a character class that is false on LF, so it is the same character on both sides.  The
   two-character look-aheads ([nc] of consume_nonws, the escape character, the hex digits of \x \u \U) are all at
   aligned positions: everything before them has been tested not to be a line feed ([noLF]).  The document-indicator
   test at column 0 needs no alignment.  The [start] marker differs on the two sides, so every helper takes two
   markers; the one test that looks at a LINE - the implicit-key check  m_line start =? m_line (current mark)  at the
   closing quote - compares two marks of the same side ([l_line_eqb]).

   [flow_go] of ScanLoops.v is the main loop of scan_flow_scalar, a local [fix] in the model. *)
From Coq Require Import List NArith ZArith Bool Arith Lia.
Import ListNotations.
Require Import Parser SBase SPrim SDir SScalar SFetch ScanLoops ScanLock ScanLockPrim.
Local Open Scope nat_scope.

Section Flow.
Context {b1 : chr -> chr} {M : marker -> marker -> Prop} {R : bst -> bst -> Prop} (L : lock b1 M R).
Local Notation wp := (lwp M).


(* escapes *)
(* read_hex n i peeks at offsets i .. i+n-1 and does not touch the state; the offsets before i are not line feeds,
   and a hex digit is not a line feed: at the first LF both sides fail is_hex (site 30), however side 2 shows it *)
Lemma lwp_read_hex n : forall i acc st1 st2 (Q : N -> bst -> N -> bst -> Prop) s1 s2,
  R s1 s2 -> M st1 st2 -> noLF i (rm s1) ->
  (forall v, noLF (i + n) (rm s1) -> Q v s1 v s2) ->
  wp (read_hex sops n i acc st1) (read_hex sops n i acc st2) Q s1 s2.
Proof.
  induction n as [|n IH]; intros i acc st1 st2 Q s1 s2 H HM HL HQ; cbn [read_hex].
  - apply lwp_ret. apply HQ. rewrite Nat.add_0_r. exact HL.
  - apply lwp_bind. apply (lwp_peekn L i); [exact H|exact HL|]. cbv beta. b1_norm L.
    destruct (is_hex (rn s1 i)) eqn:Eh; [|apply lwp_fail; exact HM].
    assert (Ni : rn s1 i <> 10%N) by (intros E; rewrite E in Eh; discriminate).
    apply IH; [exact H|exact HM|apply noLF_S; [exact HL|exact Ni]|].
    intros v Hv. apply HQ. replace (i + S n) with (S i + n) by lia. exact Hv.
Qed.

(* resolve_escape: entered at [\] followed by a character that is not a line break (that arm came first) *)
Lemma lwp_resolve_escape st1 st2 (Q : chr -> bst -> chr -> bst -> Prop) s1 s2 :
  R s1 s2 -> M st1 st2 -> noLF 2 (rm s1) ->
  (forall r t1 t2, R t1 t2 -> Q r t1 r t2) ->
  wp (resolve_escape sops st1) (resolve_escape sops st2) Q s1 s2.
Proof.
  intros H HM HL HQ. unfold resolve_escape.
  assert (N1 : rn s1 1 <> 10%N) by (exact (HL 1 ltac:(lia))).
  apply lwp_bind. apply (lwp_peekn L 1); [exact H|apply (noLF_le 2); [exact HL|lia]|]. cbv beta.
  rewrite (sees_other _ (l_sees L) _ N1).
  destruct (assocc (rn s1 1) escape_table) as [r|].
  - apply lwp_bind. apply (lwp_skip_n_non_blank L 2); [exact H|exact HL|]. intros t1 t2 HT _.
    apply lwp_ret. apply HQ. exact HT.
  - cbv zeta. destruct (Nat.eqb (code_length (rn s1 1)) 0); [apply lwp_fail; exact HM|].
    apply lwp_bind. apply (lwp_skip_n_non_blank L 2); [exact H|exact HL|]. intros u1 u2 HU _.
    apply lwp_bind. apply (lwp_look L); [exact HU|]. intros v1 v2 HV _ _ _ _ _.
    apply lwp_bind. apply lwp_read_hex; [exact HV|exact HM|apply noLF_0|]. intros v HLv. cbv beta.
    destruct (is_scalar_value v); [|apply lwp_fail; exact HM].
    apply lwp_bind. apply (lwp_skip_n_non_blank L); [exact HV|exact HLv|]. intros t1 t2 HT _.
    apply lwp_ret. apply HQ. exact HT.
Qed.

(* consume_flow_scalar_non_whitespace_chars *)
Lemma lwp_consume_nonws f1 : forall f2 single acc st1 st2
  (Q : list chr * bool -> bst -> list chr * bool -> bst -> Prop) s1 s2,
  R s1 s2 -> M st1 st2 -> (forall r t1 t2, R t1 t2 -> Q r t1 r t2) ->
  wp (consume_nonws sops f1 single acc st1) (consume_nonws sops f2 single acc st2) Q s1 s2.
Proof.
  induction f1 as [|f1 IH]; intros f2 single acc st1 st2 Q s1 s2 H HM HQ; [exact I|].
  destruct f2 as [|f2]; [apply lwp_oof_r|]. cbn [consume_nonws].
  apply lwp_bind. apply (lwp_look L); [exact H|]. intros u1 u2 HU _ _ _ _ _.
  apply lwp_bind. apply (lwp_peek L); [exact HU|]. cbv beta. b1_norm L.
  destruct (is_blank_or_breakz (rn u1 0)) eqn:Ebb; [apply lwp_ret; apply HQ; exact HU|].
  (* the character is not blank/breakz: not a line feed, so position 1 is aligned *)
  assert (N0 : rn u1 0 <> 10%N) by (intros E; rewrite E in Ebb; discriminate).
  rewrite (sees_other _ (l_sees L) _ N0).
  apply lwp_bind. apply (lwp_peekn L 1); [exact HU|apply noLF_1; exact N0|]. cbv beta. b1_norm L.
  case_if E1.
  { (* '' in a single-quoted scalar *)
    apply lwp_bind. apply (lwp_skip_n_non_blank L 2); [exact HU| |].
    - apply noLF_S; [apply noLF_1; exact N0|].
      apply andb_true_iff in E1. destruct E1 as [E1 _]. apply andb_true_iff in E1. destruct E1 as [_ E1].
      apply N.eqb_eq in E1. change (rn u1 1 <> 10%N). rewrite E1. discriminate.
    - intros v1 v2 HV _. apply IH; [exact HV|exact HM|exact HQ]. }
  case_if E2; [apply lwp_ret; apply HQ; exact HU|].
  case_if E3; [apply lwp_ret; apply HQ; exact HU|].
  destruct ((rn u1 0 =? 92)%N && negb single) eqn:E4; cbn [andb].
  - destruct (is_break (rn u1 1)) eqn:Ebk.
    + (* an escaped line break: [\] consumed in lockstep, then the break as one step *)
      apply lwp_bind. apply (lwp_look L); [exact HU|]. intros v1 v2 HV RV _ _ _ _.
      apply lwp_bind. apply (lwp_skip_non_blank L); [exact HV|rewrite (rn_eq v1 u1 0 RV); exact N0|]. intros w1 w2 HW _.
      apply lwp_bind. apply (l_skip_linebreak L); [exact HW|]. intros x1 x2 HX.
      apply lwp_ret. apply HQ. exact HX.
    + (* an escape sequence: the escape character is not a line break *)
      apply lwp_bind. apply lwp_resolve_escape; [exact HU|exact HM| |].
      * apply noLF_S; [apply noLF_1; exact N0|]. intros E. change (rn u1 1 = 10%N) in E. rewrite E in Ebk. discriminate.
      * intros r v1 v2 HV. apply IH; [exact HV|exact HM|exact HQ].
  - apply lwp_bind. apply (lwp_skip_non_blank L); [exact HU|exact N0|]. intros v1 v2 HV _.
    apply IH; [exact HV|exact HM|exact HQ].
Qed.

(* the blank-consuming loop (line folding) *)
Lemma lwp_flow_blanks f1 : forall f2 lbl lb tb ws
  (Q : bool * bool * N * list chr -> bst -> bool * bool * N * list chr -> bst -> Prop) s1 s2,
  R s1 s2 -> (forall r t1 t2, R t1 t2 -> Q r t1 r t2) ->
  wp (flow_blanks sops f1 lbl lb tb ws) (flow_blanks sops f2 lbl lb tb ws) Q s1 s2.
Proof.
  induction f1 as [|f1 IH]; intros f2 lbl lb tb ws Q s1 s2 H HQ; [exact I|].
  destruct f2 as [|f2]; [apply lwp_oof_r|]. cbn [flow_blanks].
  apply lwp_bind. apply (lwp_peek L); [exact H|]. cbv beta. b1_norm L.
  destruct (is_blank (rn s1 0)) eqn:Ebl.
  - assert (N0 : rn s1 0 <> 10%N) by (intros E; rewrite E in Ebl; discriminate).
    destruct lbl.
    + apply lwp_bind. apply (lwp_col_lt_indent L); [exact H|]. cbv beta.
      case_if Et; [apply (lwp_mark_fail L); exact H|].
      apply lwp_bind. apply (lwp_skip_blank L); [exact H|exact N0|]. intros u1 u2 HU _.
      apply lwp_bind. apply (lwp_look L); [exact HU|]. intros v1 v2 HV _ _ _ _ _.
      apply IH; [exact HV|exact HQ].
    + rewrite (sees_other _ (l_sees L) _ N0).
      apply lwp_bind. apply (lwp_skip_blank L); [exact H|exact N0|]. intros u1 u2 HU _.
      apply lwp_bind. apply (lwp_look L); [exact HU|]. intros v1 v2 HV _ _ _ _ _.
      apply IH; [exact HV|exact HQ].
  - destruct (is_break (rn s1 0)) eqn:Ebk; [|apply lwp_ret; apply HQ; exact H].
    apply lwp_bind. apply (lwp_look L); [exact H|]. intros u1 u2 HU _ _ _ _ _.
    destruct lbl.
    + apply lwp_bind. apply (l_skip_break L); [exact HU|]. intros v1 v2 HV.
      apply lwp_bind. apply (lwp_look L); [exact HV|]. intros w1 w2 HW _ _ _ _ _.
      apply IH; [exact HW|exact HQ].
    + apply lwp_bind. apply (l_skip_break L); [exact HU|]. intros v1 v2 HV.
      apply lwp_bind. apply (lwp_look L); [exact HV|]. intros w1 w2 HW _ _ _ _ _.
      apply IH; [exact HW|exact HQ].
Qed.

(* the main loop *)
(* at the exit the next character is the closing quote: not a line feed *)
Lemma lwp_flow_go F1 F2 single st1 st2 f1 : forall f2 acc lb tb ws s1 s2,
  R s1 s2 -> M st1 st2 ->
  wp (flow_go sops F1 single st1 f1 acc lb tb ws) (flow_go sops F2 single st2 f2 acc lb tb ws)
      (lpost_al R eq) s1 s2.
Proof.
  induction f1 as [|f1 IH]; intros f2 acc lb tb ws s1 s2 H HM; [exact I|].
  destruct f2 as [|f2]; [apply lwp_oof_r|]. cbn [flow_go].
  apply lwp_bind. apply (lwp_look L); [exact H|]. intros u1 u2 HU _ _ _ _ _.
  apply lwp_bind. apply lwp_get. cbv beta. l_sync L HU.
  apply lwp_bind.
  apply lwp_mono with (Q := Qe (fun _ t1 t2 => t1 = u1 /\ t2 = u2)).
  { destruct (m_col (sc_mark u1) =? 0)%N.
    - apply (lwp_next_is_document_indicator L); [exact HU|]. split; [reflexivity|split; reflexivity].
    - apply lwp_ret. split; [reflexivity|split; reflexivity]. }
  intros di t1 di' t2 [<- [-> ->]].
  destruct di; [apply lwp_fail; exact HM|].
  apply lwp_bind. apply (lwp_next_is L); [exact HU|exact (sees_is_z _ (l_sees L))|]. cbv beta.
  destruct (is_z (rn u1 0)); [apply lwp_fail; exact HM|].
  apply lwp_bind. apply (lwp_col_lt_indent L); [exact HU|]. cbv beta.
  case_if Et; [apply lwp_fail; exact HM|].
  apply lwp_bind. apply lwp_consume_nonws; [exact HU|exact HM|]. intros [acc' lbl] v1 v2 HV. cbv beta iota.
  apply lwp_bind. apply (lwp_look_ch L); [exact HV|]. intros w1 w2 HW _ _ _ _. cbv beta. b1_norm L.
  case_if Equ.
  { apply lwp_ret. split; [reflexivity|split; [exact HW|]].
    intros E. rewrite E in Equ. destruct single; vm_compute in Equ; discriminate. }
  apply lwp_bind. apply lwp_flow_blanks; [exact HW|]. intros [[[lbl' lb'] tb'] ws'] x1 x2 HX. cbv beta iota.
  destruct lbl'; [|apply IH; [exact HX|exact HM]].
  destruct (negb lb'); [apply IH; [exact HX|exact HM]|].
  destruct (tb' =? 0)%N; apply IH; [exact HX|exact HM|exact HX|exact HM].
Qed.

(* scan_flow_scalar *)
Theorem scan_flow_scalar_ok F1 F2 single s1 s2 : R s1 s2 -> rn s1 0 <> 10%N ->
  wp (scan_flow_scalar sops F1 single) (scan_flow_scalar sops F2 single) (lpost R (Mtok M)) s1 s2.
Proof.
  intros H N0. rewrite !scan_flow_scalar_eq.
  apply lwp_bind. apply (lwp_mark L); [exact H|]. intros HM0.
  apply lwp_bind. apply (lwp_skip_non_blank L); [exact H|exact N0|]. intros u1 u2 HU _.
  apply lwp_bind. eapply lwp_mono; [apply lwp_flow_go; [exact HU|exact HM0]|].
  intros r1 v1 r2 v2 (<- & HV & NV). cbv beta.
  apply lwp_bind. apply (lwp_skip_non_blank L); [exact HV|exact NV|]. intros w1 w2 HW _.
  eapply lwp_call_eq; [apply (skip_ws_to_eol_ok L); exact HW|]. intros tw x1 x2 HX.
  apply lwp_bind. apply (lwp_peek L); [exact HX|]. cbv beta.
  apply lwp_bind. apply lwp_get. cbv beta zeta. b1_norm L. l_sync L HX. rewrite (l_line_eqb L _ _ _ _ HM0 (l_mark L _ _ HX)).
  case_if Ec; [|apply lwp_fail; exact (l_mark L _ _ HX)].
  apply lwp_ret_bpost; [|exact HX]. apply Mtok_mk. apply Msp_mk; [exact HM0|exact (l_mark L _ _ HX)].
Qed.

End Flow.
