(* C02, one step: each state function of the parser model other than parse_node, and with them [state_machine], keeps
   the invariant [Inv] and emits an event the grammar accepts ([post], C02base.v); it never panics.

   One method throughout: rewrite the function to its if-form (ParserView.v), destruct the [peek]s in order ([sp]),
   decide the tests on the token kind, and close each leaf by the lemma of C02rest.v for what the branch does - pop,
   empty scalar, node ([leaf]) - or directly where it only sets the state ([set_leaf]).  The names [tk], [Hk], [q]
   ([tk0], [Hk0], [q0] when the first are taken) that the scripts mention are those [step_peek] of C02base.v gives
   to the token kind, to the equation on [p_states] and to the parser behind the peek. *)
From Coq Require Import List NArith Bool Lia.
Import ListNotations.
Require Import Parser Grammar C02base C02rest ParserView.

(* destruct the next [peek]; every parser met so far has the stack [stk] *)
Ltac sp :=
  step_peek;
  repeat match goal with
         | H : p_states ?a = ?b, H2 : p_states _ = p_states ?a |- _ => rewrite H in H2
         end.

(* close a leaf by one of the lemmas of C02rest, whose side conditions compute *)
Ltac leaf lem HR :=
  eapply lem; [eassumption | exact HR | first [reflexivity | intros; split; reflexivity] | reflexivity].

(* an event that neither pops nor pushes; the new state is set explicitly *)
Ltac set_leaf HR :=
  eapply post_ok; [reflexivity|]; unfold Inv; fields;
  repeat match goal with H : p_states _ = _ |- _ => rewrite H end;
  cbn [InvS cur_frames]; first [ split; [exact HR | eexists; split; reflexivity] | split; reflexivity ].

Lemma block_mapping_key_post p stk first :
  p_states p = stk -> Rooted stk ->
  post (GStream (FMapKey :: stack_frames stk)) (block_mapping_key p first).
Proof.
  intros EK HR. rewrite block_mapping_key_if. destruct first; [sp|]; sp.
  all: destruct (tis TKey _); [leaf post_node_or_empty HR|].
  all: destruct (tis TValue _); [leaf post_empty HR|].
  all: destruct (tis TBlockEnd _); [leaf post_pop HR|exact I].
Qed.

Lemma block_mapping_value_post p stk :
  p_states p = stk -> Rooted stk ->
  post (GStream (FMapVal :: stack_frames stk)) (block_mapping_value p).
Proof.
  intros EK HR. rewrite block_mapping_value_if. sp.
  destruct (tis TValue _); [leaf post_node_or_empty HR|leaf post_empty HR].
Qed.

Lemma flow_mapping_key_post p stk first :
  p_states p = stk -> Rooted stk ->
  post (GStream (FMapKey :: stack_frames stk)) (flow_mapping_key p first).
Proof.
  intros EK HR. rewrite flow_mapping_key_if. destruct first; [sp|]; sp.
  all: destruct (tis TFlowMappingEnd _); [leaf post_pop HR|].
  2: sp; destruct (tis TFlowEntry _); [|exact I].
  all: sp.
  all: destruct (tis TKey _); [leaf post_node_or_empty HR|].
  all: destruct (tis TValue _); [leaf post_empty HR|].
  all: destruct (tis TFlowMappingEnd _); [leaf post_pop HR|leaf post_parse_node HR].
Qed.

Lemma flow_mapping_value_post p stk empty :
  p_states p = stk -> Rooted stk ->
  post (GStream (FMapVal :: stack_frames stk)) (flow_mapping_value p empty).
Proof.
  intros EK HR. rewrite flow_mapping_value_if. destruct empty; sp; [leaf post_empty HR|].
  destruct (tis TValue _); [|leaf post_empty HR]. sp.
  destruct (tin _ _); [leaf post_empty HR|leaf post_parse_node HR].
Qed.

Lemma flow_sequence_entry_post p stk first :
  p_states p = stk -> Rooted stk ->
  post (GStream (FSeq :: stack_frames stk)) (flow_sequence_entry p first).
Proof.
  intros EK HR. rewrite flow_sequence_entry_if. destruct first; [sp|]; sp.
  all: destruct (tis TFlowSequenceEnd _); [leaf post_pop HR|].
  2: destruct (tis TFlowEntry _); [|exact I].
  all: sp.
  all: destruct (tis TFlowSequenceEnd _); [leaf post_pop HR|].
  all: destruct (tis TKey _); [set_leaf HR|leaf post_parse_node HR].
Qed.

Lemma block_sequence_entry_post p stk first :
  p_states p = stk -> Rooted stk ->
  post (GStream (FSeq :: stack_frames stk)) (block_sequence_entry p first).
Proof.
  intros EK HR. rewrite block_sequence_entry_if. destruct first; [sp|]; sp.
  all: destruct (tis TBlockEnd _); [leaf post_pop HR|].
  all: destruct (tis TBlockEntry _); [leaf post_node_or_empty HR|exact I].
Qed.

Lemma indentless_sequence_entry_post p stk :
  p_states p = stk -> Rooted stk ->
  post (GStream (FSeq :: stack_frames stk)) (indentless_sequence_entry p).
Proof.
  intros EK HR. rewrite indentless_sequence_entry_if. sp.
  destruct (tis TBlockEntry _); [leaf post_node_or_empty HR|leaf post_pop HR].
Qed.

Lemma fsem_key_post p stk :
  p_states p = stk -> Rooted stk ->
  post (GStream (FMapKey :: FSeq :: stack_frames stk)) (flow_sequence_entry_mapping_key p).
Proof. intros EK HR. rewrite flow_sequence_entry_mapping_key_if. leaf post_node_or_empty HR. Qed.

Lemma fsem_value_post p stk :
  p_states p = stk -> Rooted stk ->
  post (GStream (FMapVal :: FSeq :: stack_frames stk)) (flow_sequence_entry_mapping_value p).
Proof.
  intros EK HR. rewrite flow_sequence_entry_mapping_value_if. sp.
  destruct (tis TValue _); [|leaf post_empty HR]. sp. cbv zeta.
  destruct (tin _ _); [leaf post_empty HR|leaf post_parse_node HR].
Qed.

Lemma fsem_end_post p stk m :
  p_states p = stk -> Rooted stk ->
  post (GStream (FMapKey :: FSeq :: stack_frames stk)) (flow_sequence_entry_mapping_end p m).
Proof. intros EK HR. unfold flow_sequence_entry_mapping_end. set_leaf HR. Qed.

Lemma document_content_post p stk :
  p_states p = stk -> Rooted stk -> post (GStream (stack_frames stk)) (document_content p).
Proof.
  intros EK HR. rewrite document_content_if. sp. destruct (tin _ tk); [leaf post_pop HR|].
  subst stk. rewrite <- Hk in HR |- *. apply parse_node_post. exact HR.
Qed.

Lemma stream_start_post p :
  p_states p = [] -> post GInit (stream_start p).
Proof.
  intros EK. unfold stream_start. sp. destruct tk; try exact I.
  eapply post_ok; [reflexivity|]. unfold Inv; fields. rewrite ?Hk. cbn. auto.
Qed.

Lemma explicit_document_start_post p :
  p_states p = [] -> post (GStream []) (explicit_document_start p).
Proof.
  intros EK. unfold explicit_document_start.
  pose proof (process_directives_ok _ p false [] (tmeasure_bound p)) as HP.
  destruct (process_directives _ p false []) as [q| |]; [|exact I|contradiction].
  destruct HP as (A & B & C). sp. destruct tk; try exact I.
  eapply post_ok; [reflexivity|]. unfold Inv; fields. rewrite ?Hk, ?B, ?EK. cbn.
  split; [constructor|]. eexists; split; reflexivity.
Qed.

Lemma document_start_post p implicit :
  p_states p = [] -> post (GStream []) (document_start p implicit).
Proof.
  intros EK. rewrite document_start_if.
  pose proof (skip_document_ends_ok _ p (tmeasure_bound p)) as HP.
  destruct (skip_document_ends _ p) as [q| |]; [|exact I|contradiction].
  destruct HP as (A & B & C). sp.
  assert (EQ : p_states q0 = []) by congruence.
  destruct (tis TStreamEnd tk).
  { eapply post_ok; [reflexivity|]. unfold Inv; fields. rewrite EQ. cbn. auto. }
  destruct (negb implicit || tin _ tk); [apply explicit_document_start_post; exact EQ|].
  pose proof (process_directives_ok _ q0 false [] (tmeasure_bound q0)) as HP.
  destruct (process_directives _ q0 false []) as [q1| |]; [|exact I|contradiction].
  destruct HP as (A1 & B1 & C1).
  eapply post_ok; [reflexivity|]. unfold Inv; fields. rewrite B1, EQ. cbn.
  split; [constructor|]. eexists; split; reflexivity.
Qed.

Lemma document_end_post p :
  p_states p = [] -> post (GStream [FDocDone]) (document_end p).
Proof.
  intros EK. rewrite document_end_if. sp. cbv zeta.
  destruct (tis TDocumentEnd tk); cbn beta iota.
  - destruct (p_keep_tags _); (eapply post_ok; [reflexivity|]); unfold Inv; fields; rewrite Hk; cbn; auto.
  - destruct (p_keep_tags _); sp; (destruct (tin _ tk0); [exact I|]);
      (eapply post_ok; [reflexivity|]); unfold Inv; fields; rewrite Hk0; cbn; auto.
Qed.

Theorem state_machine_post p g :
  Inv p g -> p_state p <> SEnd -> post g (state_machine p).
Proof.
  unfold Inv, state_machine. intros HI HE.
  destruct (p_state p) eqn:ES; cbn [InvS cur_frames] in HI;
    try (destruct HI as [HK ->]);
    try (destruct HI as [HR [a [Ha ->]]]; inversion Ha; subst a; cbn [app]).
  - apply stream_start_post; assumption.
  - apply document_start_post; assumption.
  - apply document_start_post; assumption.
  - apply document_content_post; auto.
  - apply document_end_post; assumption.
  - apply parse_node_post; assumption.
  - apply block_sequence_entry_post; auto.
  - apply block_sequence_entry_post; auto.
  - apply indentless_sequence_entry_post; auto.
  - apply block_mapping_key_post; auto.
  - apply block_mapping_key_post; auto.
  - apply block_mapping_value_post; auto.
  - apply flow_sequence_entry_post; auto.
  - apply flow_sequence_entry_post; auto.
  - apply fsem_key_post; auto.
  - apply fsem_value_post; auto.
  - apply fsem_end_post; auto.
  - apply flow_mapping_key_post; auto.
  - apply flow_mapping_key_post; auto.
  - apply flow_mapping_value_post; auto.
  - apply flow_mapping_value_post; auto.
  - congruence.
Qed.
Print Assumptions state_machine_post.
