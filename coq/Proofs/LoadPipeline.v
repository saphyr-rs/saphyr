(* C07 — composition with C02: Parser::load (PipeL.parse_load: the pull parser's events with the anchor
   table cleared at each document start) delivers, on ANY token stream, an acceptable event sentence when it
   ends without error; so the loader never panics on it and returns the specification's documents. *)
From Coq Require Import List NArith ZArith Bool Lia.
Import ListNotations.
Require Import Parser SBase SPrim SDir SScalar SFetch Pipe PipeL Resolver Loader Grammar C02base C02rest C02tail C02run.
Require Import BuildDocs LoaderProofs.

Lemma clear_anchors_inv p g : Inv p g -> Inv (clear_anchors p) g.
Proof. unfold Inv, clear_anchors. cbn [p_state p_states]. exact (fun H => H). Qed.

(* one turn of PipeL.parse_load: the parser's turn, the span dropped, the anchors cleared at a document start
   ([inl] alone is Resolver.inl here) *)
Definition load_step (se : scan_end) (p : parser) : (event * parser) + pend :=
  match run_step se p with
  | Datatypes.inl ((ev, _), p') => Datatypes.inl (ev, match ev with EDocumentStart _ => clear_anchors p' | _ => p' end)
  | inr v => inr v
  end.

Lemma parse_load_iter se : forall fuel p acc, parse_load fuel p se acc = iter at_end (load_step se) fuel p acc.
Proof.
  induction fuel as [|fuel IH]; intros p acc; [reflexivity|].
  cbn [parse_load iter]. rewrite if_at_end. destruct (at_end p); [reflexivity|].
  unfold load_step, run_step. destruct (state_machine p) as [[[ev sp] p']|[|s m]|n]; [apply IH|reflexivity..].
Qed.

Lemma load_step_accepted se : accepted_step (fun e => e) se (load_step se).
Proof.
  intros p g HI NE. unfold load_step. pose proof (run_step_accepted se p g HI NE) as HP.
  destruct (run_step se p) as [[[e sp] p']|v]; [|exact HP].
  destruct HP as (g' & Hs & HI'). exists g'. split; [exact Hs|].
  pose proof (clear_anchors_inv _ _ HI') as HC. destruct e; assumption.
Qed.

Lemma parse_load_inv toks keep se fuel :
  let r := parse_load fuel (init_parser toks keep) se [] in
  exists g, grun GInit (fst r) = Some g /\ (snd r = PDone -> g = GEnd) /\ end_ok se (snd r).
Proof.
  cbn zeta. rewrite parse_load_iter.
  destruct (iter_wellformed (fun e => e) se _ (load_step_accepted se) fuel _ [] GInit (init_inv toks keep) eq_refl)
    as (g & A & B & C).
  rewrite map_id in A. eauto.
Qed.

Theorem parse_load_wellformed toks keep se fuel evs :
  parse_load fuel (init_parser toks keep) se [] = (evs, PDone) -> grun GInit evs = Some GEnd.
Proof.
  intros H. destruct (parse_load_inv toks keep se fuel) as [g [A [B _]]].
  rewrite H in A, B. cbn [fst snd] in A, B. rewrite (B eq_refl) in A. exact A.
Qed.

(* whatever the token stream: a load-mode parse that ends without error hands the loader a sentence whose
   documents the loader returns exactly as the specification says, without panic *)
Theorem pipeline_load_spec toks keep se fuel evs :
  parse_load fuel (init_parser toks keep) se [] = (evs, PDone) ->
  exists ds ld, parse_events evs = Some ds /\ evs = stream_of ds /\
                load_events evs l0 = LOk ld /\ rev (l_docs ld) = spec_load ds.
Proof.
  intros H. apply parse_load_wellformed in H.
  destruct (accepted_loads_spec evs H) as [ds [ld [A [B [C [D _]]]]]]. exists ds, ld. auto.
Qed.

(* the whole string-to-documents model: documents only as specified; a "bad" verdict can only be a
   scanner-model panic or exhausted fuel, never the parser's or the loader's.  999 is what [run_load]
   (Model/PipeL.v) returns for [PFuel]. *)
Theorem run_load_spec s :
  match run_load s with
  | LDocs d => exists evs ds, parse_events evs = Some ds /\ evs = stream_of ds /\ d = spec_load ds
  | LErr => True
  | LBad n =>
      n = 999%N \/
      exists F, snd (scan_all str_ops F (4 * F + 20) (init_sc {| si_chars := s; si_look := 0 |}) []) = SPanic n
  end.
Proof.
  unfold run_load. cbn zeta.
  destruct (scan_all str_ops _ _ _ _) as [toks se] eqn:Esc.
  change {| p_toks := toks; p_token := None; p_states := []; p_state := SStreamStart; p_anchors := [];
            p_anchor_id := 1%N; p_tags := []; p_keep_tags := false |} with (init_parser toks false).
  match goal with |- context [parse_load ?f ?p se []] =>
    destruct (parse_load_inv toks false se f) as [g [_ [_ Hend]]];
    destruct (parse_load f p se []) as [evs pe] eqn:E end.
  cbn [snd] in Hend.
  destruct pe; try exact I.
  - destruct (pipeline_load_spec _ _ _ _ _ E) as [ds [ld [A [B [C D]]]]].
    rewrite C. exists evs, ds. auto.
  - right. cbn [end_ok] in Hend. eexists. rewrite Esc. exact Hend.
  - left. reflexivity.
Qed.
