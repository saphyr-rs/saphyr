(* C01, bounded work: the nine character-level fuel contracts (ScanFuelPrim/Dir/Flow/Plain/Block.v) plugged into the
   skeleton and top-level theorems of ScanFuelTop.v.  Nothing is proved here but the instantiation. *)
From Coq Require Import List NArith Bool.
Import ListNotations.
Require Import Parser SBase SFetch Pipe ScanFuel ScanFuelFetch ScanFuelTop.
Require ScanFuelPrim ScanFuelDir ScanFuelFlow ScanFuelPlain ScanFuelBlock ScanSafeStrTop.
Local Open Scope nat_scope.

Definition H_ws := ScanFuelPrim.skip_ws_to_eol_ok.

Lemma scanner_never_out_of_fuel : forall orig : list chr,
  let F := 2 * length orig + 10 in
  snd (scan_all str_ops F (4 * F + 20) (init_sc {| si_chars := orig; si_look := 0 |}) []) <> SFuel.
Proof.
  exact (scan_all_never_out_of_fuel ScanFuelPrim.skip_to_next_token_ok H_ws ScanFuelPrim.skip_yaml_whitespace_ok
    (ScanFuelDir.scan_directive_ok H_ws) ScanFuelDir.scan_tag_ok ScanFuelDir.scan_anchor_ok
    (ScanFuelFlow.scan_flow_scalar_ok H_ws) ScanFuelPlain.scan_plain_scalar_ok (ScanFuelBlock.scan_block_scalar_ok H_ws)).
Qed.

Lemma pipeline_never_out_of_fuel : forall orig : list N, snd (run_str orig) <> PFuel.
Proof. intros orig. exact (run_str_fuel_of_scan orig (scanner_never_out_of_fuel orig)). Qed.

Lemma fetch_next_token_progress : forall (F : nat) (s : fst_), fuel_ok F s -> fwp (fetch_next_token str_ops F) (fnt_post s) s.
Proof.
  exact (fetch_next_token_never_out_of_fuel ScanFuelPrim.skip_to_next_token_ok H_ws ScanFuelPrim.skip_yaml_whitespace_ok
    (ScanFuelDir.scan_directive_ok H_ws) ScanFuelDir.scan_tag_ok ScanFuelDir.scan_anchor_ok
    (ScanFuelFlow.scan_flow_scalar_ok H_ws) ScanFuelPlain.scan_plain_scalar_ok (ScanFuelBlock.scan_block_scalar_ok H_ws)).
Qed.

(* total correctness of the string pipeline: every run ends properly *)
Definition proper_pend (e : pend) : Prop :=
  match e with PDone | PScanErr _ _ | PParseErr _ _ => True | PPanic _ | PFuel => False end.
Lemma pipeline_ends_properly : forall orig : list N, proper_pend (snd (run_str orig)).
Proof.
  intros orig. pose proof (pipeline_never_out_of_fuel orig) as NF.
  pose proof (ScanSafeStrTop.pipeline_never_panics_str orig) as NP.
  destruct (snd (run_str orig)); cbn; auto. exact (NP _ eq_refl).
Qed.
