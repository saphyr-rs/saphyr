(* C14 (see ScanBrk.v): the family of directives and tags (Model/SDir.v) - the walk of ScanLockDir.v at the lock
   [brk_lock md].  No line break is ever consumed inside a tag or a directive. *)
Require Import ScanBrk.
Require ScanLockDir.

Theorem scan_tag_ok md : brk_scan_tag md.
Proof. exact (ScanLockDir.scan_tag_ok (brk_lock md)). Qed.
Theorem scan_directive_ok md : brk_scan_directive md.
Proof. exact (ScanLockDir.scan_directive_ok (brk_lock md)). Qed.

Print Assumptions scan_tag_ok.
Print Assumptions scan_directive_ok.
Check scan_tag_ok.
Check scan_directive_ok.
