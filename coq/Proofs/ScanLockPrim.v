(* The derived primitives and skeleton helpers of Model/SPrim.v as rules under any lock, the bulk input loops, and the
   contracts of skip_ws_to_eol, skip_to_next_token, skip_yaml_whitespace and scan_anchor.

   Conventions.  [s1 t1] side 1, [s2 t2] side 2.  Every rule keeps [R] and says how side 1's remaining text [rm]
   moved; the characters a rule exposes are side 1's ([rn s1 i]); what side 2 read is [b1 (rn s1 i)] and [b1_norm L]
   removes the [b1]s under character classes and comparisons with literals.  [Q] is always annotated
   [_ -> bst -> _ -> bst -> Prop].  A rule that needs the lock takes it as its first explicit argument; the rules for
   the helpers that read or write the simple keys, the token counter or the flow level take a [klock].
   All loops take TWO fuels (side 1, side 2): the two runs are given different fuels by their callers, and every
   loop is in lockstep, so the proofs are by induction on the first fuel and case analysis on the second. *)
From Coq Require Import List NArith ZArith Bool Arith Lia.
Import ListNotations.
Require Import Parser SBase SPrim SDir SScalar SFetch ScanLock ListKit.
Local Open Scope nat_scope.

(* lists *)
Lemma F2_existsb {A B} (R : A -> B -> Prop) (f : A -> bool) (g : B -> bool) l1 l2 :
  Forall2 R l1 l2 -> (forall a b, R a b -> f a = g b) -> existsb f l1 = existsb g l2.
Proof. intros H Hfg. induction H as [|a b l1 l2 Hab _ IH]; [reflexivity|]. cbn [existsb]. rewrite (Hfg a b Hab), IH. reflexivity. Qed.
Lemma F2_map {A B A' B'} (R : A -> B -> Prop) (R' : A' -> B' -> Prop) (f : A -> A') (g : B -> B') l1 l2 :
  Forall2 R l1 l2 -> (forall a b, R a b -> R' (f a) (g b)) -> Forall2 R' (map f l1) (map g l2).
Proof. intros H Hfg. induction H; cbn [map]; constructor; auto. Qed.
Lemma F2_tl {A B} (R : A -> B -> Prop) l1 l2 : Forall2 R l1 l2 -> Forall2 R (tl l1) (tl l2).
Proof. intros H. destruct H; [constructor|assumption]. Qed.
Lemma F2_last {A B} (R : A -> B -> Prop) l1 l2 d1 d2 : Forall2 R l1 l2 -> R d1 d2 -> R (last l1 d1) (last l2 d2).
Proof.
  intros H Hd. induction H as [|a b l1 l2 Hab H IH]; [exact Hd|].
  destruct H as [|a' b' l1 l2 Hab' H]; [exact Hab|]. exact IH.
Qed.
Lemma F2_nil_iff {A B} (R : A -> B -> Prop) l1 l2 : Forall2 R l1 l2 ->
  match l1 with [] => false | _ => true end = match l2 with [] => false | _ => true end.
Proof. intros H. destruct H; reflexivity. Qed.
Lemma F2_insert_at {A B} (R : A -> B -> Prop) n x y l1 l2 : Forall2 R l1 l2 -> R x y ->
  match insert_at n x l1, insert_at n y l2 with
  | Some r1, Some r2 => Forall2 R r1 r2
  | None, None => True
  | _, _ => False
  end.
Proof.
  intros H Hxy. revert l1 l2 H. induction n as [|n IH]; intros l1 l2 H.
  - cbn [insert_at]. constructor; assumption.
  - destruct H as [|a b l1 l2 Hab H]; cbn [insert_at]; [exact I|].
    specialize (IH l1 l2 H). destruct (insert_at n x l1), (insert_at n y l2); try tauto. constructor; assumption.
Qed.

Section Prim.
Context {b1 : chr -> chr} {M : marker -> marker -> Prop} {R : bst -> bst -> Prop} (L : lock b1 M R).
Local Notation wp := (lwp M).

(* the input primitives *)
Lemma lwp_look n (Q : unit -> bst -> unit -> bst -> Prop) s1 s2 :
  R s1 s2 ->
  (forall t1 t2, R t1 t2 -> rm t1 = rm s1 -> ers t1 = ers s1 -> ers t2 = ers s2 -> n <= lk t1 -> lk s1 <= lk t1 ->
                 Q tt t1 tt t2) ->
  wp (look sops n) (look sops n) Q s1 s2.
Proof.
  intros H HQ. eapply lwp_eval; [apply look_ok|apply look_ok|].
  apply HQ; [apply (l_bump L); exact H|reflexivity|reflexivity|reflexivity|rewrite lk_bump; lia|rewrite lk_bump; lia].
Qed.
(* the aligned rule: none of the k characters before is a line feed *)
Lemma lwp_peekn k (Q : chr -> bst -> chr -> bst -> Prop) s1 s2 :
  R s1 s2 -> noLF k (rm s1) -> Q (rn s1 k) s1 (b1 (rn s1 k)) s2 -> wp (peekn sops k) (peekn sops k) Q s1 s2.
Proof. intros H HL HQ. apply lwp_peekn_raw. rewrite (l_seen L _ _ H k HL). exact HQ. Qed.
Lemma lwp_peek (Q : chr -> bst -> chr -> bst -> Prop) s1 s2 :
  R s1 s2 -> Q (rn s1 0) s1 (b1 (rn s1 0)) s2 -> wp (SPrim.peek sops) (SPrim.peek sops) Q s1 s2.
Proof. intros H HQ. apply lwp_peekn; [exact H|apply noLF_0|exact HQ]. Qed.
Lemma lwp_look_ch (Q : chr -> bst -> chr -> bst -> Prop) s1 s2 :
  R s1 s2 ->
  (forall t1 t2, R t1 t2 -> rm t1 = rm s1 -> ers t1 = ers s1 -> ers t2 = ers s2 -> 1 <= lk t1 ->
                 Q (rn t1 0) t1 (b1 (rn t1 0)) t2) ->
  wp (look_ch sops) (look_ch sops) Q s1 s2.
Proof.
  intros H HQ. unfold look_ch. apply lwp_bind. apply lwp_look; [exact H|].
  intros t1 t2 HT R1 E1 E2 L1 _. apply lwp_peek; [exact HT|]. apply HQ; assumption.
Qed.
(* a test that is blind to what side 2 shows gives the same answer on both sides *)
Lemma lwp_next_is p (Q : bool -> bst -> bool -> bst -> Prop) s1 s2 :
  R s1 s2 -> blind b1 p -> Q (p (rn s1 0)) s1 (p (rn s1 0)) s2 -> wp (next_is sops p) (next_is sops p) Q s1 s2.
Proof.
  intros H Hp HQ. unfold next_is. apply lwp_bind. apply lwp_peek; [exact H|]. apply lwp_ret. rewrite Hp. exact HQ.
Qed.

(* skipping: a character that is not a line feed, in lockstep *)
Lemma lwp_in_skip (Q : unit -> bst -> unit -> bst -> Prop) s1 s2 :
  R s1 s2 -> rn s1 0 <> 10%N ->
  (forall t1 t2, R t1 t2 -> rm t1 = tl (rm s1) -> ers t1 = ers s1 -> ers t2 = ers s2 -> Q tt t1 tt t2) ->
  wp (in_skip sops) (in_skip sops) Q s1 s2.
Proof.
  intros H H0 HQ. eapply lwp_eval; [apply in_skip_ok|apply in_skip_ok|].
  apply HQ; [apply (l_drop1 L); assumption|reflexivity|reflexivity|reflexivity].
Qed.
Lemma lwp_in_skip_n n (Q : unit -> bst -> unit -> bst -> Prop) s1 s2 :
  R s1 s2 -> noLF n (rm s1) ->
  (forall t1 t2, R t1 t2 -> rm t1 = skipn n (rm s1) -> ers t1 = ers s1 -> ers t2 = ers s2 -> Q tt t1 tt t2) ->
  wp (in_skip_n sops n) (in_skip_n sops n) Q s1 s2.
Proof.
  intros H H0 HQ. eapply lwp_eval; [apply in_skip_n_ok|apply in_skip_n_ok|].
  apply HQ; [apply (l_dropn L); assumption|reflexivity|reflexivity|reflexivity].
Qed.
Lemma lwp_adv_mark n (Q : unit -> bst -> unit -> bst -> Prop) s1 s2 :
  R s1 s2 -> (forall t1 t2, R t1 t2 -> rm t1 = rm s1 -> Q tt t1 tt t2) -> wp (adv_mark n) (adv_mark n) Q s1 s2.
Proof. intros H HQ. unfold adv_mark. apply lwp_modify. apply HQ; [apply (l_adv L); exact H|reflexivity]. Qed.
Lemma lwp_skip_blank (Q : unit -> bst -> unit -> bst -> Prop) s1 s2 :
  R s1 s2 -> rn s1 0 <> 10%N ->
  (forall t1 t2, R t1 t2 -> rm t1 = tl (rm s1) -> Q tt t1 tt t2) -> wp (skip_blank sops) (skip_blank sops) Q s1 s2.
Proof.
  intros H H0 HQ. eapply lwp_eval; [apply skip_blank_ok|apply skip_blank_ok|].
  apply HQ; [apply (l_adv L 1 (drop1 s1) (drop1 s2)); apply (l_drop1 L); assumption|reflexivity].
Qed.
Lemma lwp_skip_non_blank (Q : unit -> bst -> unit -> bst -> Prop) s1 s2 :
  R s1 s2 -> rn s1 0 <> 10%N ->
  (forall t1 t2, R t1 t2 -> rm t1 = tl (rm s1) -> Q tt t1 tt t2) ->
  wp (skip_non_blank sops) (skip_non_blank sops) Q s1 s2.
Proof.
  intros H H0 HQ. eapply lwp_eval; [apply skip_non_blank_ok|apply skip_non_blank_ok|].
  apply HQ; [apply (l_set_lws L); apply (l_adv L 1 (drop1 s1) (drop1 s2)); apply (l_drop1 L); assumption|reflexivity].
Qed.
Lemma lwp_skip_n_non_blank n (Q : unit -> bst -> unit -> bst -> Prop) s1 s2 :
  R s1 s2 -> noLF n (rm s1) ->
  (forall t1 t2, R t1 t2 -> rm t1 = skipn n (rm s1) -> Q tt t1 tt t2) ->
  wp (skip_n_non_blank sops n) (skip_n_non_blank sops n) Q s1 s2.
Proof.
  intros H H0 HQ. unfold skip_n_non_blank. apply lwp_bind. apply lwp_in_skip_n; [exact H|exact H0|].
  intros u1 u2 HU R1 _ _. apply lwp_bind. apply lwp_adv_mark; [exact HU|]. intros v1 v2 HV R2.
  apply lwp_modify. apply HQ; [apply (l_set_lws L); exact HV|].
  change (rm (set_lws false v1)) with (rm v1). rewrite R2, R1. reflexivity.
Qed.
(* the same answer: the lookahead counters agree on being zero *)
Lemma lwp_buf_is_empty (Q : bool -> bst -> bool -> bst -> Prop) s1 s2 :
  R s1 s2 -> Q (Nat.eqb (lk s1) 0) s1 (Nat.eqb (lk s1) 0) s2 -> wp (buf_is_empty sops) (buf_is_empty sops) Q s1 s2.
Proof.
  intros H HQ. unfold buf_is_empty. apply lwp_gets. cbn [buflen str_ops]. fold (lk s1). fold (lk s2).
  rewrite (l_lk0 L _ _ H). exact HQ.
Qed.

(* the Input default methods: the SAME value on both sides *)
(* a test behind an assertion on the lookahead counter: an assertion that fails on either side is a panic *)
Lemma lwp_test n site (v : bst -> bool) (m : BM bool) (Q : bool -> bst -> bool -> bst -> Prop) s1 s2 :
  (forall s, m s = if Nat.ltb (lk s) n then Panic site else Ok (v s, s)) -> v s2 = v s1 -> Q (v s1) s1 (v s1) s2 ->
  lwp M m m Q s1 s2.
Proof.
  intros Em Ev HQ. unfold lwp. rewrite !Em. destruct (Nat.ltb (lk s1) n); [exact I|].
  destruct (Nat.ltb (lk s2) n); [exact I|]. rewrite Ev. exact HQ.
Qed.
Lemma lwp_next_char_is c (Q : bool -> bst -> bool -> bst -> Prop) s1 s2 :
  R s1 s2 -> lit c -> Q (rn s1 0 =? c)%N s1 (rn s1 0 =? c)%N s2 -> wp (next_char_is sops c) (next_char_is sops c) Q s1 s2.
Proof.
  intros H Lc HQ. unfold next_char_is. apply lwp_bind. apply lwp_peek; [exact H|]. apply lwp_ret.
  rewrite (sees_eqb _ (l_sees L) _ c Lc). exact HQ.
Qed.
Lemma lwp_nth_char_is n c (Q : bool -> bst -> bool -> bst -> Prop) s1 s2 :
  R s1 s2 -> noLF n (rm s1) -> lit c -> Q (rn s1 n =? c)%N s1 (rn s1 n =? c)%N s2 ->
  wp (nth_char_is sops n c) (nth_char_is sops n c) Q s1 s2.
Proof.
  intros H HL Lc HQ. unfold nth_char_is. apply lwp_bind. apply lwp_peekn; [exact H|exact HL|]. apply lwp_ret.
  rewrite (sees_eqb _ (l_sees L) _ c Lc). exact HQ.
Qed.
Lemma lwp_next_2_are a b (Q : bool -> bst -> bool -> bst -> Prop) s1 s2 :
  R s1 s2 -> lit a -> lit b -> Q (n2are s1 a b) s1 (n2are s1 a b) s2 -> wp (next_2_are sops a b) (next_2_are sops a b) Q s1 s2.
Proof.
  intros H La Lb HQ. apply (lwp_test 2 103%N (fun s => n2are s a b)); [intros s; apply next_2_are_eval| |exact HQ].
  exact (n2are_seen b1 (l_sees L) _ _ (l_seen L _ _ H) a b La Lb).
Qed.
Lemma lwp_next_3_are a b c (Q : bool -> bst -> bool -> bst -> Prop) s1 s2 :
  R s1 s2 -> lit a -> lit b -> lit c -> Q (n3are s1 a b c) s1 (n3are s1 a b c) s2 ->
  wp (next_3_are sops a b c) (next_3_are sops a b c) Q s1 s2.
Proof.
  intros H La Lb Lc HQ. apply (lwp_test 3 104%N (fun s => n3are s a b c)); [intros s; apply next_3_are_eval| |exact HQ].
  exact (n3are_seen b1 (l_sees L) _ _ (l_seen L _ _ H) a b c La Lb Lc).
Qed.
(* document markers: no alignment premise - a marker found on one side is found on the other *)
Lemma lwp_next_is_document_indicator (Q : bool -> bst -> bool -> bst -> Prop) s1 s2 :
  R s1 s2 -> Q (docind_val s1) s1 (docind_val s1) s2 ->
  wp (next_is_document_indicator sops) (next_is_document_indicator sops) Q s1 s2.
Proof.
  intros H HQ. apply (lwp_test 4 105%N docind_val); [exact docind_eval| |exact HQ].
  exact (docind_seen b1 (l_sees L) _ _ (l_seen L _ _ H)).
Qed.
Lemma lwp_next_is_document_start (Q : bool -> bst -> bool -> bst -> Prop) s1 s2 :
  R s1 s2 -> Q (docstart_val s1) s1 (docstart_val s1) s2 ->
  wp (next_is_document_start sops) (next_is_document_start sops) Q s1 s2.
Proof.
  intros H HQ. apply (lwp_test 4 106%N docstart_val); [exact docstart_eval| |exact HQ].
  exact (docstart_seen b1 (l_sees L) _ _ (l_seen L _ _ H)).
Qed.
Lemma lwp_next_is_document_end (Q : bool -> bst -> bool -> bst -> Prop) s1 s2 :
  R s1 s2 -> Q (docend_val s1) s1 (docend_val s1) s2 ->
  wp (next_is_document_end sops) (next_is_document_end sops) Q s1 s2.
Proof.
  intros H HQ. apply (lwp_test 4 107%N docend_val); [exact docend_eval| |exact HQ].
  exact (docend_seen b1 (l_sees L) _ _ (l_seen L _ _ H)).
Qed.
(* next_can_be_plain_scalar looks at TWO characters: the first must not be a line feed *)
Lemma lwp_next_can_be_plain_scalar fl (Q : bool -> bst -> bool -> bst -> Prop) s1 s2 :
  R s1 s2 -> rn s1 0 <> 10%N -> Q (plain_ok_val fl s1) s1 (plain_ok_val fl s1) s2 ->
  wp (next_can_be_plain_scalar sops fl) (next_can_be_plain_scalar sops fl) Q s1 s2.
Proof.
  intros H N0 HQ. unfold lwp. rewrite !plain_ok_eval. rewrite (plain_ok_seen b1 (l_sees L) _ _ (l_seen L _ _ H) fl N0). exact HQ.
Qed.

Local Notation skel_post Q s1 :=
  (forall t1 t2, R t1 t2 -> rm t1 = rm s1 -> Q tt t1 tt t2).

(* calling a contract *)
Lemma lwp_call {A1 A2 B1 B2} (VR : A1 -> A2 -> Prop) (m1 : BM A1) (m2 : BM A2) (f1 : A1 -> BM B1) (f2 : A2 -> BM B2)
  (Q : B1 -> bst -> B2 -> bst -> Prop) s1 s2 :
  wp m1 m2 (lpost R VR) s1 s2 ->
  (forall a1 a2 t1 t2, VR a1 a2 -> R t1 t2 -> wp (f1 a1) (f2 a2) Q t1 t2) ->
  wp (bind m1 f1) (bind m2 f2) Q s1 s2.
Proof. intros H HK. apply lwp_bind. eapply lwp_mono; [exact H|]. intros a1 t1 a2 t2 [V HB]. apply HK; assumption. Qed.
Lemma lwp_call_eq {A B1 B2} (m1 m2 : BM A) (f1 : A -> BM B1) (f2 : A -> BM B2) (Q : B1 -> bst -> B2 -> bst -> Prop) s1 s2 :
  wp m1 m2 (lpost R eq) s1 s2 ->
  (forall a t1 t2, R t1 t2 -> wp (f1 a) (f2 a) Q t1 t2) ->
  wp (bind m1 f1) (bind m2 f2) Q s1 s2.
Proof. intros H HK. eapply lwp_call; [exact H|]. intros a1 a2 t1 t2 <- HB. apply HK. exact HB. Qed.
Lemma lwp_call_al {A1 A2 B1 B2} (VR : A1 -> A2 -> Prop) (m1 : BM A1) (m2 : BM A2) (f1 : A1 -> BM B1) (f2 : A2 -> BM B2)
  (Q : B1 -> bst -> B2 -> bst -> Prop) s1 s2 :
  wp m1 m2 (lpost_al R VR) s1 s2 ->
  (forall a1 a2 t1 t2, VR a1 a2 -> R t1 t2 -> rn t1 0 <> 10%N -> wp (f1 a1) (f2 a2) Q t1 t2) ->
  wp (bind m1 f1) (bind m2 f2) Q s1 s2.
Proof. intros H HK. apply lwp_bind. eapply lwp_mono; [exact H|]. intros a1 t1 a2 t2 (V & HB & HA). apply HK; assumption. Qed.
Lemma lwp_call_al_eq {A B1 B2} (m1 m2 : BM A) (f1 : A -> BM B1) (f2 : A -> BM B2) (Q : B1 -> bst -> B2 -> bst -> Prop) s1 s2 :
  wp m1 m2 (lpost_al R eq) s1 s2 ->
  (forall a t1 t2, R t1 t2 -> rn t1 0 <> 10%N -> wp (f1 a) (f2 a) Q t1 t2) ->
  wp (bind m1 f1) (bind m2 f2) Q s1 s2.
Proof. intros H HK. eapply lwp_call_al; [exact H|]. intros a1 a2 t1 t2 <- HB HA. apply HK; assumption. Qed.
Lemma lwp_bpost_al_weaken {A1 A2} (VR : A1 -> A2 -> Prop) (m1 : BM A1) (m2 : BM A2) s1 s2 :
  wp m1 m2 (lpost_al R VR) s1 s2 -> wp m1 m2 (lpost R VR) s1 s2.
Proof. intros H. eapply lwp_mono; [exact H|]. intros a1 t1 a2 t2 (V & HB & _). split; assumption. Qed.
Lemma lwp_ret_bpost {A1 A2} (VR : A1 -> A2 -> Prop) a1 a2 s1 s2 : VR a1 a2 -> R s1 s2 -> wp (ret a1) (ret a2) (lpost R VR) s1 s2.
Proof. intros V H. apply lwp_ret. split; assumption. Qed.
Lemma lwp_ret_bpost_al {A1 A2} (VR : A1 -> A2 -> Prop) a1 a2 s1 s2 :
  VR a1 a2 -> R s1 s2 -> rn s1 0 <> 10%N -> wp (ret a1) (ret a2) (lpost_al R VR) s1 s2.
Proof. intros V H HA. apply lwp_ret. split; [exact V|split; [exact H|exact HA]]. Qed.

Lemma lwp_modify_l (f1 f2 : bst -> bst) (Q : unit -> bst -> unit -> bst -> Prop) s1 s2 :
  R (f1 s1) (f2 s2) -> rm (f1 s1) = rm s1 -> skel_post Q s1 -> wp (modify f1) (modify f2) Q s1 s2.
Proof. intros HB HR HQ. apply lwp_modify. apply HQ; assumption. Qed.
Lemma lwp_put_l (u1 u2 : bst) (Q : unit -> bst -> unit -> bst -> Prop) s1 s2 :
  R u1 u2 -> rm u1 = rm s1 -> skel_post Q s1 -> wp (put u1) (put u2) Q s1 s2.
Proof. intros HB HR HQ. apply lwp_put. apply HQ; assumption. Qed.

(* errors are reported at the mark: same line and column on both sides *)
Lemma lwp_fail_mark {A1 A2} site (Q : A1 -> bst -> A2 -> bst -> Prop) s1 s2 :
  R s1 s2 -> wp (@fail strin A1 site (sc_mark s1)) (@fail strin A2 site (sc_mark s2)) Q s1 s2.
Proof. intros H. apply lwp_fail. exact (l_mark L _ _ H). Qed.
Lemma lwp_mark (Q : marker -> bst -> marker -> bst -> Prop) s1 s2 :
  R s1 s2 -> (M (sc_mark s1) (sc_mark s2) -> Q (sc_mark s1) s1 (sc_mark s2) s2) -> wp mark mark Q s1 s2.
Proof. intros H HQ. unfold mark. apply lwp_gets. apply HQ. exact (l_mark L _ _ H). Qed.
Lemma lwp_mark_fail {A1 A2} site (Q : A1 -> bst -> A2 -> bst -> Prop) s1 s2 :
  R s1 s2 -> wp (bind mark (fun m => @fail strin A1 site m)) (bind mark (fun m => @fail strin A2 site m)) Q s1 s2.
Proof. intros H. apply lwp_bind. apply lwp_mark; [exact H|]. intros HM. apply lwp_fail. exact HM. Qed.

(* token queue / flags *)
Lemma lwp_push_tok tk1 tk2 (Q : unit -> bst -> unit -> bst -> Prop) s1 s2 :
  R s1 s2 -> (Mtok M) tk1 tk2 -> skel_post Q s1 -> wp (push_tok tk1) (push_tok tk2) Q s1 s2.
Proof. intros H HT HQ. unfold push_tok. apply lwp_modify_l; [apply (L_push L); assumption|reflexivity|exact HQ]. Qed.
(* insert_token: the same insertion, or the same out-of-range panic *)
Lemma lwp_insert_token p tk1 tk2 (Q : unit -> bst -> unit -> bst -> Prop) s1 s2 :
  R s1 s2 -> (Mtok M) tk1 tk2 -> skel_post Q s1 -> wp (insert_token p tk1) (insert_token p tk2) Q s1 s2.
Proof.
  intros H HT HQ. unfold lwp, insert_token.
  pose proof (F2_insert_at (Mtok M) (N.to_nat p) tk1 tk2 _ _ (l_tokens L _ _ H) HT) as HI.
  destruct (insert_at (N.to_nat p) tk1 (sc_tokens s1)) as [l1|]; [|exact I].
  destruct (insert_at (N.to_nat p) tk2 (sc_tokens s2)) as [l2|]; [|destruct HI].
  apply HQ; [apply (l_set_tokens L); assumption|reflexivity].
Qed.
Lemma lwp_allow_simple_key (Q : unit -> bst -> unit -> bst -> Prop) s1 s2 :
  R s1 s2 -> skel_post Q s1 -> wp allow_simple_key allow_simple_key Q s1 s2.
Proof. intros H HQ. unfold allow_simple_key. apply lwp_modify_l; [apply (l_set_ska L); exact H|reflexivity|exact HQ]. Qed.
Lemma lwp_disallow_simple_key (Q : unit -> bst -> unit -> bst -> Prop) s1 s2 :
  R s1 s2 -> skel_post Q s1 -> wp disallow_simple_key disallow_simple_key Q s1 s2.
Proof. intros H HQ. unfold disallow_simple_key. apply lwp_modify_l; [apply (l_set_ska L); exact H|reflexivity|exact HQ]. Qed.

(* flow_level / in_flow / is_within_block / col / col_lt_indent: the same value on both sides *)
Lemma lwp_flow_level (Q : N -> bst -> N -> bst -> Prop) s1 s2 :
  R s1 s2 -> Q (sc_flow_level s1) s1 (sc_flow_level s1) s2 -> wp flow_level flow_level Q s1 s2.
Proof. intros H HQ. unfold flow_level. apply lwp_gets_eq; [exact (L_flow_level L H)|exact HQ]. Qed.
Lemma lwp_in_flow (Q : bool -> bst -> bool -> bst -> Prop) s1 s2 :
  R s1 s2 -> Q (0 <? sc_flow_level s1)%N s1 (0 <? sc_flow_level s1)%N s2 -> wp in_flow in_flow Q s1 s2.
Proof. intros H HQ. unfold in_flow. apply lwp_bind. apply lwp_flow_level; [exact H|]. apply lwp_ret. exact HQ. Qed.
Definition within_block1 (s : bst) : bool := match sc_indents s with [] => false | _ => true end.
Lemma lwp_is_within_block (Q : bool -> bst -> bool -> bst -> Prop) s1 s2 :
  R s1 s2 -> Q (within_block1 s1) s1 (within_block1 s1) s2 -> wp is_within_block is_within_block Q s1 s2.
Proof.
  intros H HQ. unfold is_within_block. apply lwp_gets_eq; [|exact HQ]. rewrite (L_indents L H). reflexivity.
Qed.
Lemma lwp_col (Q : N -> bst -> N -> bst -> Prop) s1 s2 :
  R s1 s2 -> Q (m_col (sc_mark s1)) s1 (m_col (sc_mark s1)) s2 -> wp col col Q s1 s2.
Proof. intros H HQ. unfold col. apply lwp_gets_eq; [exact (L_col L H)|exact HQ]. Qed.
Lemma lwp_col_lt_indent (Q : bool -> bst -> bool -> bst -> Prop) s1 s2 :
  R s1 s2 ->
  Q (Z.of_N (m_col (sc_mark s1)) <? sc_indent s1)%Z s1 (Z.of_N (m_col (sc_mark s1)) <? sc_indent s1)%Z s2 ->
  wp col_lt_indent col_lt_indent Q s1 s2.
Proof. intros H HQ. unfold col_lt_indent. apply lwp_gets_eq; [|exact HQ]. rewrite (L_col L H), (L_indent L H). reflexivity. Qed.

Lemma lwp_unroll_indent_go F1 F2 cl (Q : unit -> bst -> unit -> bst -> Prop) s1 s2 :
  R s1 s2 -> skel_post Q s1 -> wp (unroll_indent_go F1 cl) (unroll_indent_go F2 cl) Q s1 s2.
Proof.
  revert F2 Q s1 s2. induction F1 as [|F1 IH]; intros F2 Q s1 s2 H HQ; [exact I|].
  destruct F2 as [|F2]; [apply lwp_oof_r|].
  cbn [unroll_indent_go]. apply lwp_bind. apply lwp_get. cbv beta. l_sync L H.
  destruct (cl <? sc_indent s1)%Z; [|apply lwp_ret; apply HQ; [exact H|reflexivity]].
  destruct (sc_indents s1) as [|i r] eqn:EI; [apply lwp_panic_l|].
  apply lwp_bind. apply lwp_put_l; [apply (l_set_indent L); exact H|reflexivity|]. intros u1 u2 HU RU.
  apply lwp_bind. destruct (in_needs_block_end i).
  - apply lwp_push_tok; [exact HU|apply Mtok_empty; exact (l_mark L _ _ H)|]. intros v1 v2 HV RV.
    apply IH; [exact HV|]. intros t1 t2 HT RT. apply HQ; [exact HT|congruence].
  - apply lwp_ret. apply IH; [exact HU|]. intros t1 t2 HT RT. apply HQ; [exact HT|congruence].
Qed.
Lemma lwp_unroll_indent cl (Q : unit -> bst -> unit -> bst -> Prop) s1 s2 :
  R s1 s2 -> skel_post Q s1 -> wp (unroll_indent cl) (unroll_indent cl) Q s1 s2.
Proof.
  intros H HQ. unfold unroll_indent. apply lwp_bind. apply lwp_get. cbv beta. l_sync L H.
  destruct (0 <? sc_flow_level s1)%N; [apply lwp_ret; apply HQ; [exact H|reflexivity]|].
  apply lwp_unroll_indent_go; [exact H|exact HQ].
Qed.
Lemma lwp_roll_one_col_indent (Q : unit -> bst -> unit -> bst -> Prop) s1 s2 :
  R s1 s2 -> skel_post Q s1 -> wp roll_one_col_indent roll_one_col_indent Q s1 s2.
Proof.
  intros H HQ. unfold roll_one_col_indent. apply lwp_bind. apply lwp_get. cbv beta. l_sync L H.
  match goal with |- lwp _ (if ?b then _ else _) _ _ _ _ => destruct b end.
  - apply lwp_put_l; [apply (l_set_indent L); exact H|reflexivity|exact HQ].
  - apply lwp_ret. apply HQ; [exact H|reflexivity].
Qed.
Lemma lwp_unroll_non_block_indents (Q : unit -> bst -> unit -> bst -> Prop) s1 s2 :
  R s1 s2 -> skel_post Q s1 -> wp unroll_non_block_indents unroll_non_block_indents Q s1 s2.
Proof.
  intros H HQ. unfold unroll_non_block_indents. apply lwp_modify. l_sync L H.
  destruct (unroll_nb (sc_indents s1) (sc_indent s1)) as [ind l]. apply HQ; [apply (l_set_indent L); exact H|reflexivity].
Qed.
(* end_implicit_mapping *)
Lemma lwp_end_implicit_mapping mk1 mk2 (Q : unit -> bst -> unit -> bst -> Prop) s1 s2 :
  R s1 s2 -> M mk1 mk2 -> skel_post Q s1 -> wp (end_implicit_mapping mk1) (end_implicit_mapping mk2) Q s1 s2.
Proof.
  intros H HM HQ. unfold end_implicit_mapping. apply lwp_bind. apply lwp_get. cbv beta. l_sync L H.
  assert (H0 : wp (ret tt) (ret tt) Q s1 s2) by (apply lwp_ret; apply HQ; [exact H|reflexivity]).
  destruct (sc_ifms s1) as [|[| | |] r]; try exact H0.
  - apply lwp_bind. apply lwp_put_l; [apply (l_set_ifms L); exact H|reflexivity|]. intros u1 u2 HU RU.
    apply lwp_push_tok; [exact HU|apply Mtok_empty; exact HM|]. intros t1 t2 HT RT. apply HQ; [exact HT|congruence].
  - apply lwp_put_l; [apply (l_set_ifms L); exact H|reflexivity|exact HQ].
Qed.
(* the bulk input loops (lockstep; two fuels) *)
Lemma skipn_tl {A} j (l : list A) : skipn j (tl l) = skipn (S j) l.
Proof. destruct l; [destruct j; reflexivity|reflexivity]. Qed.

(* in_skip_while F p: k characters satisfying p consumed (none of them a line feed since p 10 = false); at the
   exit the next character fails p *)
Lemma lwp_in_skip_while F1 F2 p (Q : N -> bst -> N -> bst -> Prop) s1 s2 :
  R s1 s2 -> blind b1 p -> p 10%N = false ->
  (forall k t1 t2, R t1 t2 -> p (rn t1 0) = false ->
     rm t1 = skipn (N.to_nat k) (rm s1) -> (forall i, i < N.to_nat k -> p (rn s1 i) = true) -> Q k t1 k t2) ->
  wp (in_skip_while sops F1 p) (in_skip_while sops F2 p) Q s1 s2.
Proof.
  intros H Hp Hlf HQ. unfold in_skip_while.
  match goal with |- lwp _ (?L F1 0%N) (?L F2 0%N) _ _ _ =>
    assert (HL : forall f1 f2 k u1 u2, R u1 u2 -> rm u1 = skipn (N.to_nat k) (rm s1) ->
                   (forall i, i < N.to_nat k -> p (rn s1 i) = true) -> wp (L f1 k) (L f2 k) Q u1 u2) end.
  { induction f1 as [|f1 IHf]; intros f2 k u1 u2 HU RU PU; [exact I|].
    destruct f2 as [|f2]; [apply lwp_oof_r|]. lazy beta iota.
    apply lwp_bind. apply lwp_look_ch; [exact HU|]. intros v1 v2 HV RV _ _ _. rewrite Hp.
    destruct (p (rn v1 0)) eqn:Ep.
    - assert (N0 : rn v1 0 <> 10%N) by (intros E; rewrite E, Hlf in Ep; discriminate).
      apply lwp_bind. apply lwp_in_skip; [exact HV|exact N0|]. intros w1 w2 HW RW _ _.
      apply IHf; [exact HW| |].
      + rewrite RW, RV, RU, tl_skipn. f_equal. lia.
      + intros i Hi. destruct (Nat.eq_dec i (N.to_nat k)) as [->|Hne]; [|apply PU; lia].
        rewrite <- Ep. rewrite (rn_eq v1 u1 0 RV). rewrite (rn_skipn u1 s1 _ 0 RU). rewrite Nat.add_0_r. reflexivity.
    - apply lwp_ret. apply HQ; try assumption. congruence. }
  apply HL; [exact H|reflexivity|]. intros i Hi. cbn in Hi. lia.
Qed.
Lemma lwp_in_skip_while_non_breakz F1 F2 (Q : N -> bst -> N -> bst -> Prop) s1 s2 :
  R s1 s2 ->
  (forall k t1 t2, R t1 t2 -> is_breakz (rn t1 0) = true ->
     rm t1 = skipn (N.to_nat k) (rm s1) -> (forall i, i < N.to_nat k -> is_breakz (rn s1 i) = false) -> Q k t1 k t2) ->
  wp (in_skip_while_non_breakz sops F1) (in_skip_while_non_breakz sops F2) Q s1 s2.
Proof.
  intros H HQ. unfold in_skip_while_non_breakz. apply lwp_in_skip_while; [exact H|exact (sees_not_breakz _ (l_sees L))|reflexivity|].
  intros k t1 t2 HT PT RT AT. apply HQ; try assumption.
  - apply negb_false_iff. exact PT.
  - intros i Hi. apply negb_true_iff. apply AT. exact Hi.
Qed.
Lemma lwp_in_skip_while_blank F1 F2 (Q : N -> bst -> N -> bst -> Prop) s1 s2 :
  R s1 s2 ->
  (forall k t1 t2, R t1 t2 -> is_blank (rn t1 0) = false ->
     rm t1 = skipn (N.to_nat k) (rm s1) -> (forall i, i < N.to_nat k -> is_blank (rn s1 i) = true) -> Q k t1 k t2) ->
  wp (in_skip_while_blank sops F1) (in_skip_while_blank sops F2) Q s1 s2.
Proof. intros H HQ. unfold in_skip_while_blank. apply lwp_in_skip_while; [exact H|exact (sees_is_blank _ (l_sees L))|reflexivity|exact HQ]. Qed.

(* in_fetch_while_alpha F acc: same loop, the characters are also returned (the same list on both sides) *)
Lemma lwp_in_fetch_while_alpha F1 F2 acc (Q : list chr * N -> bst -> list chr * N -> bst -> Prop) s1 s2 :
  R s1 s2 ->
  (forall r t1 t2, R t1 t2 -> is_alpha (rn t1 0) = false ->
     rm t1 = skipn (N.to_nat (snd r)) (rm s1) ->
     (forall i, i < N.to_nat (snd r) -> is_alpha (rn s1 i) = true) -> Q r t1 r t2) ->
  wp (in_fetch_while_alpha sops F1 acc) (in_fetch_while_alpha sops F2 acc) Q s1 s2.
Proof.
  intros H HQ. unfold in_fetch_while_alpha.
  match goal with |- lwp _ (?L F1 acc 0%N) (?L F2 acc 0%N) _ _ _ =>
    assert (HL : forall f1 f2 a k u1 u2, R u1 u2 -> rm u1 = skipn (N.to_nat k) (rm s1) ->
                   (forall i, i < N.to_nat k -> is_alpha (rn s1 i) = true) -> wp (L f1 a k) (L f2 a k) Q u1 u2) end.
  { induction f1 as [|f1 IHf]; intros f2 a k u1 u2 HU RU PU; [exact I|].
    destruct f2 as [|f2]; [apply lwp_oof_r|]. lazy beta iota.
    apply lwp_bind. apply lwp_look_ch; [exact HU|]. intros v1 v2 HV RV _ _ _. rewrite (sees_is_alpha _ (l_sees L)).
    destruct (is_alpha (rn v1 0)) eqn:Ep.
    - assert (N0 : rn v1 0 <> 10%N) by (intros E; rewrite E in Ep; discriminate).
      apply lwp_bind. apply lwp_in_skip; [exact HV|exact N0|]. intros w1 w2 HW RW _ _.
      rewrite (sees_other _ (l_sees L) _ N0).
      apply IHf; [exact HW| |].
      + rewrite RW, RV, RU, tl_skipn. f_equal. lia.
      + intros i Hi. destruct (Nat.eq_dec i (N.to_nat k)) as [->|Hne]; [|apply PU; lia].
        rewrite <- Ep. rewrite (rn_eq v1 u1 0 RV). rewrite (rn_skipn u1 s1 _ 0 RU). rewrite Nat.add_0_r. reflexivity.
    - apply lwp_ret. apply HQ; cbn [snd]; try assumption. congruence. }
  apply HL; [exact H|reflexivity|]. intros i Hi. cbn in Hi. lia.
Qed.

(* in_skip_ws_to_eol (with its nested comment loop): j characters consumed - blanks and comment text, never a line
   break -, the count grew by j *)
Lemma lwp_in_skip_ws_to_eol F1 F2 stb tab ws n
  (Q : N * option (bool * bool) -> bst -> N * option (bool * bool) -> bst -> Prop) s1 s2 :
  R s1 s2 ->
  (forall r j t1 t2, R t1 t2 -> fst r = (n + N.of_nat j)%N -> rm t1 = skipn j (rm s1) -> Q r t1 r t2) ->
  wp (in_skip_ws_to_eol sops F1 stb tab ws n) (in_skip_ws_to_eol sops F2 stb tab ws n) Q s1 s2.
Proof.
  revert F2 tab ws n Q s1 s2. induction F1 as [|F1 IHF]; intros F2 tab ws n Q s1 s2 H HQ; [exact I|].
  destruct F2 as [|F2]; [apply lwp_oof_r|].
  cbn [in_skip_ws_to_eol].
  apply lwp_bind. apply lwp_look_ch; [exact H|]. intros u1 u2 HU RU _ _ _.
  (* the callee after consuming [j0] characters *)
  assert (STEP : forall tab' ws' j0 v1 v2, R v1 v2 -> rm v1 = skipn j0 (rm s1) ->
            wp (in_skip_ws_to_eol sops F1 stb tab' ws' (n + N.of_nat j0)%N)
                (in_skip_ws_to_eol sops F2 stb tab' ws' (n + N.of_nat j0)%N) Q v1 v2).
  { intros tab' ws' j0 v1 v2 HV RV. apply IHF; [exact HV|]. intros r j t1 t2 HT FR RT.
    apply (HQ r (j0 + j)); [exact HT|rewrite FR; lia|]. rewrite RT, RV. apply skipn_add. }
  assert (ONE : forall v1 : bst, rm v1 = tl (rm u1) -> rm v1 = skipn 1 (rm s1)).
  { intros v1 RV. rewrite RV, RU. reflexivity. }
  b1_norm L.
  destruct (N.eqb_spec (rn u1 0) 32) as [E32|N32].
  { assert (N0 : rn u1 0 <> 10%N) by (rewrite E32; discriminate).
    apply lwp_bind. apply lwp_in_skip; [exact HU|exact N0|]. intros v1 v2 HV RV _ _.
    apply (STEP tab true 1 v1 v2); [exact HV|apply ONE; exact RV]. }
  match goal with |- lwp _ (if ?b then _ else _) _ _ _ _ => destruct b eqn:Etab end.
  { assert (N0 : rn u1 0 <> 10%N).
    { intros E. rewrite E in Etab. discriminate. }
    apply lwp_bind. apply lwp_in_skip; [exact HU|exact N0|]. intros v1 v2 HV RV _ _.
    apply (STEP true ws 1 v1 v2); [exact HV|apply ONE; exact RV]. }
  assert (HQ0 : forall o, Q (n, o) u1 (n, o) u2).
  { intros o. apply (HQ (n, o) 0); [exact HU|cbn [fst]; lia|exact RU]. }
  destruct (N.eqb_spec (rn u1 0) 35) as [E35|N35]; [|apply lwp_ret; apply HQ0].
  destruct (negb tab && negb ws); [apply lwp_ret; apply HQ0|].
  assert (N0 : rn u1 0 <> 10%N) by (rewrite E35; discriminate).
  apply lwp_bind. apply lwp_in_skip; [exact HU|exact N0|]. intros v1 v2 HV RV _ _.
  (* the comment loop: [j] comment characters consumed after the '#', which is counted at the exit *)
  match goal with |- lwp _ (?L1 F1 n) (?L2 F2 n) _ _ _ =>
    assert (HL : forall f1 f2 j w1 w2, R w1 w2 -> rm w1 = skipn (S j) (rm s1) ->
                   wp (L1 f1 (n + N.of_nat j)%N) (L2 f2 (n + N.of_nat j)%N) Q w1 w2) end.
  { induction f1 as [|f1 IHf]; intros f2 j w1 w2 HW RW; [exact I|].
    destruct f2 as [|f2]; [apply lwp_oof_r|]. lazy beta iota.
    apply lwp_bind. apply lwp_look_ch; [exact HW|]. intros x1 x2 HX RX _ _ _. b1_norm L.
    destruct (is_breakz (rn x1 0)) eqn:Ebz.
    - replace (n + N.of_nat j + 1)%N with (n + N.of_nat (S j))%N by lia.
      apply STEP; [exact HX|congruence].
    - assert (Nx : rn x1 0 <> 10%N) by (intros E; rewrite E in Ebz; discriminate).
      apply lwp_bind. apply lwp_in_skip; [exact HX|exact Nx|]. intros y1 y2 HY RY _ _.
      replace (n + N.of_nat j + 1)%N with (n + N.of_nat (S j))%N by lia.
      apply IHf; [exact HY|]. rewrite RY, RX, RW. apply tl_skipn. }
  specialize (HL F1 F2 0 v1 v2 HV (ONE v1 RV)). change (N.of_nat 0) with 0%N in HL. rewrite N.add_0_r in HL. exact HL.
Qed.

(* the contracts *)
Theorem skip_ws_to_eol_ok F1 F2 stb s1 s2 : R s1 s2 ->
  wp (skip_ws_to_eol sops F1 stb) (skip_ws_to_eol sops F2 stb) (lpost R eq) s1 s2.
Proof.
  intros H. unfold skip_ws_to_eol.
  apply lwp_bind. apply lwp_in_skip_ws_to_eol; [exact H|]. intros r j u1 u2 HU _ _.
  apply lwp_bind. apply lwp_adv_mark; [exact HU|]. intros v1 v2 HV _.
  destruct (snd r) as [tw|].
  - apply lwp_ret_bpost; [reflexivity|exact HV].
  - apply lwp_mark_fail. exact HV.
Qed.

Theorem skip_to_next_token_ok : forall F1 F2 s1 s2, R s1 s2 ->
  wp (skip_to_next_token sops F1) (skip_to_next_token sops F2) (lpost_al R eq) s1 s2.
Proof.
  induction F1 as [|F1 IHF]; intros F2 s1 s2 H; [exact I|].
  destruct F2 as [|F2]; [apply lwp_oof_r|].
  cbn [skip_to_next_token].
  apply lwp_bind. apply lwp_look_ch; [exact H|]. intros u1 u2 HU RU _ _ _.
  apply lwp_bind. apply lwp_get. cbv beta.
  apply lwp_bind. apply lwp_is_within_block; [exact HU|]. cbv beta.
  lwp_if L HU.
  { (* a tab in the indentation: skip_ws_to_eol, then a break must follow *)
    eapply lwp_call_eq; [apply skip_ws_to_eol_ok; exact HU|]. intros tw v1 v2 HV.
    apply lwp_bind. apply lwp_next_is; [exact HV|exact (sees_is_breakz _ (l_sees L))|]. destruct (is_breakz (rn v1 0)).
    - apply IHF. exact HV.
    - apply lwp_mark_fail. exact HV. }
  lwp_if L HU.
  { (* tab or space *)
    assert (N0 : rn u1 0 <> 10%N).
    { intros E. rewrite E in Eb0. discriminate. }
    apply lwp_bind. apply lwp_skip_blank; [exact HU|exact N0|]. intros v1 v2 HV _. apply IHF. exact HV. }
  lwp_if L HU.
  { (* a line break: consumed as one unit by skip_linebreak, whatever each side holds for it *)
    apply lwp_bind. apply lwp_look; [exact HU|]. intros v1 v2 HV RV _ _ _ _.
    apply lwp_bind. apply (l_skip_linebreak L); [exact HV|]. intros w1 w2 HW.
    apply lwp_bind. apply lwp_flow_level; [exact HW|]. cbv beta.
    apply lwp_bind. destruct (sc_flow_level w1 =? 0)%N.
    - apply lwp_allow_simple_key; [exact HW|]. intros x1 x2 HX _. apply IHF. exact HX.
    - apply lwp_ret. apply IHF. exact HW. }
  lwp_if L HU.
  { (* a comment *)
    apply lwp_bind. apply lwp_in_skip_while_non_breakz; [exact HU|]. intros k v1 v2 HV _ _ _.
    apply lwp_bind. apply lwp_adv_mark; [exact HV|]. intros w1 w2 HW _. apply IHF. exact HW. }
  apply lwp_ret_bpost_al; [reflexivity|exact HU|].
  intros E. rewrite E in Eb1. discriminate.
Qed.

Theorem skip_yaml_whitespace_ok F1 F2 s1 s2 : R s1 s2 ->
  wp (skip_yaml_whitespace sops F1) (skip_yaml_whitespace sops F2) (lpost_al R eq) s1 s2.
Proof.
  intros H. unfold skip_yaml_whitespace.
  match goal with |- lwp _ (?L1 F1 true) (?L2 F2 true) _ _ _ =>
    assert (HL : forall f1 f2 need u1 u2, R u1 u2 -> wp (L1 f1 need) (L2 f2 need) (lpost_al R eq) u1 u2) end.
  { clear s1 s2 H. induction f1 as [|f1 IHf]; intros f2 need s1 s2 H; [exact I|].
    destruct f2 as [|f2]; [apply lwp_oof_r|]. lazy beta iota.
    apply lwp_bind. apply lwp_look_ch; [exact H|]. intros u1 u2 HU RU _ _ _.
    lwp_if L HU.
    { assert (N0 : rn u1 0 <> 10%N).
      { intros E. rewrite E in Eb. discriminate. }
      apply lwp_bind. apply lwp_skip_blank; [exact HU|exact N0|]. intros v1 v2 HV _. apply IHf. exact HV. }
    lwp_if L HU.
    { apply lwp_bind. apply lwp_look; [exact HU|]. intros v1 v2 HV RV _ _ _ _.
      apply lwp_bind. apply (l_skip_linebreak L); [exact HV|]. intros w1 w2 HW.
      apply lwp_bind. apply lwp_flow_level; [exact HW|]. cbv beta.
      apply lwp_bind. destruct (sc_flow_level w1 =? 0)%N.
      - apply lwp_allow_simple_key; [exact HW|]. intros x1 x2 HX _. apply IHf. exact HX.
      - apply lwp_ret. apply IHf. exact HW. }
    lwp_if L HU.
    { apply lwp_bind. apply lwp_in_skip_while_non_breakz; [exact HU|]. intros k v1 v2 HV _ _ _.
      apply lwp_bind. apply lwp_adv_mark; [exact HV|]. intros w1 w2 HW _. apply IHf. exact HW. }
    destruct need.
    - apply lwp_mark_fail. exact HU.
    - apply lwp_ret_bpost_al; [reflexivity|exact HU|]. intros E. rewrite E in Eb0. discriminate. }
  apply HL. exact H.
Qed.

(* ---------------- a worked example beyond the primitives: scan_anchor ----------------
   (shows the whole method on a scanner with a local [fix] loop: capture the loop, two-fuel induction, [b1_norm L]
   after every character read, the "not a line feed" fact from the character class that was just tested;
   the directive/tag/anchor family may use it as it is) *)
Theorem scan_anchor_ok F1 F2 alias s1 s2 : R s1 s2 -> rn s1 0 <> 10%N ->
  wp (scan_anchor sops F1 alias) (scan_anchor sops F2 alias) (lpost R (Mtok M)) s1 s2.
Proof.
  intros H N0. unfold scan_anchor.
  apply lwp_bind. apply lwp_mark; [exact H|]. intros HM0.
  apply lwp_bind. apply lwp_skip_non_blank; [exact H|exact N0|]. intros u1 u2 HU _.
  apply lwp_bind.
  match goal with |- lwp _ (?L F1 []) (?L F2 []) ?Q _ _ =>
    assert (HL : forall f1 f2 acc v1 v2, R v1 v2 -> wp (L f1 acc) (L f2 acc) (lpost R eq) v1 v2) end.
  { induction f1 as [|f1 IH]; intros f2 acc v1 v2 HV; [exact I|]. destruct f2 as [|f2]; [apply lwp_oof_r|].
    lazy beta iota. apply lwp_bind. apply lwp_look_ch; [exact HV|]. intros w1 w2 HW _ _ _ _. b1_norm L.
    destruct (is_anchor_char (rn w1 0)) eqn:Ea.
    - assert (Nw : rn w1 0 <> 10%N) by (intros E; rewrite E in Ea; discriminate).
      apply lwp_bind. apply lwp_skip_non_blank; [exact HW|exact Nw|]. intros x1 x2 HX _.
      rewrite (sees_other _ (l_sees L) _ Nw). apply IH. exact HX.
    - apply lwp_ret_bpost; [reflexivity|exact HW]. }
  eapply lwp_mono; [apply HL; exact HU|]. intros r1 v1 r2 v2 [<- HV].
  destruct r1 as [|c r]; [apply lwp_fail; exact HM0|].
  apply lwp_bind. apply lwp_mark; [exact HV|]. intros HM1.
  apply lwp_ret_bpost; [|exact HV]. apply Mtok_mk. apply Msp_mk; assumption.
Qed.

End Prim.
Arguments lwp_modify_l {M} R. Arguments lwp_put_l {M} R.

(* ---------------- the skeleton helpers that read or write the simple keys, the token counter or the flow level
   ---------------- *)
(* the [number] arguments of roll_indent: token numbers, shifted like the counter *)
Definition numk (dk : N) (o1 o2 : option N) : Prop :=
  match o1, o2 with Some a, Some b => (a + dk)%N = b | None, None => True | _, _ => False end.
Definition stale_of (s : bst) (k : simple_key) : bool := sk_possible k && (sc_flow_level s =? 0)%N && sk_far k (sc_mark s).
Definition flow_open_st (s : bst) : bst :=
  nb1 (set_ska true (set_fl (sc_flow_level s + 1) (set_sks (sk_blank :: sc_sks s) s))).
Lemma flow_open_eval {B} (k : marker -> BM B) (s : bst) :
  bind increase_flow_level (fun _ => bind allow_simple_key (fun _ => bind mark (fun st => bind (skip_non_blank sops) (fun _ => k st)))) s
  = if (sc_flow_level s =? FLOW_LEVEL_MAX)%N then Err 45%N (sc_mark s) else k (sc_mark s) (flow_open_st s).
Proof.
  unfold increase_flow_level. unfold bind at 1 2. unfold get. cbv zeta.
  destruct (sc_flow_level s =? FLOW_LEVEL_MAX)%N; [reflexivity|]. reflexivity.
Qed.

Section Keys.
Context {b1 : chr -> chr} {M : marker -> marker -> Prop} {R : bst -> bst -> Prop}.
Context {dk : N} {K : marker -> marker -> simple_key -> simple_key -> Prop} (KL : klock b1 M R dk K).
Local Notation wp := (lwp M).
Let L : lock b1 M R := k_lock KL.
Local Notation skel_post Q s1 := (forall t1 t2, R t1 t2 -> rm t1 = rm s1 -> Q tt t1 tt t2).

(* the guarded reads of the "required" flag *)
Lemma K_pr c1 c2 k1 k2 : K c1 c2 k1 k2 -> sk_possible k2 && sk_required k2 = sk_possible k1 && sk_required k1.
Proof.
  intros HK. rewrite <- (k_possible KL _ _ _ _ HK). destruct (sk_possible k1) eqn:EP; [|reflexivity].
  rewrite (k_required KL _ _ _ _ HK EP). reflexivity.
Qed.
Lemma K_rp c1 c2 k1 k2 : K c1 c2 k1 k2 -> sk_required k2 && sk_possible k2 = sk_required k1 && sk_possible k1.
Proof. intros HK. rewrite (andb_comm (sk_required k2)), (andb_comm (sk_required k1)). exact (K_pr _ _ _ _ HK). Qed.

Lemma lwp_roll_indent cl number1 number2 tk mk1 mk2 (Q : unit -> bst -> unit -> bst -> Prop) s1 s2 :
  R s1 s2 -> M mk1 mk2 -> numk dk number1 number2 -> skel_post Q s1 ->
  wp (roll_indent cl number1 tk mk1) (roll_indent cl number2 tk mk2) Q s1 s2.
Proof.
  intros H HM HN HQ. unfold roll_indent. apply lwp_bind. apply lwp_get. cbv beta. l_sync L H. rewrite <- (k_tp KL _ _ H).
  destruct (0 <? sc_flow_level s1)%N; [apply lwp_ret; apply HQ; [exact H|reflexivity]|].
  match goal with |- context [let '(ind, inds) := ?X in _] => destruct X as [ind inds] end.
  destruct (ind <? Z.of_N cl)%Z.
  - destruct (BLOCK_NESTING_MAX <=? N.of_nat (length inds))%N; [unfold lwp; split; [reflexivity|exact (l_mark L _ _ H)]|].
    apply lwp_bind. apply (lwp_put_l R); [apply (l_set_indent L); exact H|reflexivity|]. intros u1 u2 HU RU.
    destruct number1 as [n|], number2 as [n2|]; try contradiction.
    + cbn [numk] in HN. subst n2. rewrite shift_ltb, shift_sub.
      destruct (n <? sc_tokens_parsed s1)%N; [apply lwp_panic_l|].
      apply (lwp_insert_token L); [exact HU|apply Mtok_empty; exact HM|]. intros t1 t2 HT RT. apply HQ; [exact HT|congruence].
    + apply (lwp_push_tok L); [exact HU|apply Mtok_empty; exact HM|]. intros t1 t2 HT RT. apply HQ; [exact HT|congruence].
  - apply (lwp_put_l R); [apply (l_set_indent L); exact H|reflexivity|exact HQ].
Qed.

(* save_simple_key: the key is saved at the current mark on both sides, or the same empty-indent-stack panic *)
Lemma lwp_save_simple_key (Q : unit -> bst -> unit -> bst -> Prop) s1 s2 :
  R s1 s2 -> skel_post Q s1 -> wp save_simple_key save_simple_key Q s1 s2.
Proof.
  intros H HQ. unfold save_simple_key. apply lwp_bind. apply lwp_get. cbv beta. l_sync L H. rewrite <- (k_tp KL _ _ H).
  destruct (sc_ska s1); [|apply lwp_ret; apply HQ; [exact H|reflexivity]].
  apply lwp_bind.
  assert (HP : forall r, wp (put (set_sks ({| sk_possible := true; sk_required := r;
                 sk_token_number := (sc_tokens_parsed s1 + N.of_nat (length (sc_tokens s1)))%N; sk_mark := sc_mark s1 |}
                 :: tl (sc_sks s1)) s1))
               (put (set_sks ({| sk_possible := true; sk_required := r;
                 sk_token_number := (sc_tokens_parsed s1 + dk + N.of_nat (length (sc_tokens s1)))%N; sk_mark := sc_mark s2 |}
                 :: tl (sc_sks s2)) s2)) Q s1 s2).
  { intros r. apply (lwp_put_l R); [|reflexivity|exact HQ]. apply (k_set_sks KL); [exact H|].
    constructor; [apply (k_here KL); [exact (l_mark L _ _ H)|lia]|apply F2_tl; exact (k_sks KL _ _ H)]. }
  match goal with |- lwp _ (if ?b then _ else _) _ _ _ _ => destruct b end.
  - destruct (sc_indents s1) as [|i r]; [apply lwp_panic_l|]. apply lwp_ret. apply HP.
  - apply lwp_ret. apply HP.
Qed.
(* remove_simple_key: the same error (site 43) or the same update *)
Lemma lwp_remove_simple_key (Q : unit -> bst -> unit -> bst -> Prop) s1 s2 :
  R s1 s2 -> skel_post Q s1 -> wp remove_simple_key remove_simple_key Q s1 s2.
Proof.
  intros H HQ. unfold remove_simple_key. apply lwp_bind. apply lwp_get. cbv beta.
  pose proof (k_sks KL _ _ H) as HK. destruct HK as [|k1 k2 r1 r2 HK HR]; [apply lwp_panic_l|].
  rewrite (K_pr _ _ _ _ HK). destruct (sk_possible k1 && sk_required k1); [apply (lwp_fail_mark L); exact H|].
  apply (lwp_put_l R); [|reflexivity|exact HQ]. apply (k_set_sks KL); [exact H|].
  constructor; [exact (k_kill KL _ _ _ _ HK)|exact HR].
Qed.
(* stale_simple_keys: whether a key is stale is the same question on both sides *)
Lemma stale_K s1 s2 k1 k2 : R s1 s2 -> K (sc_mark s1) (sc_mark s2) k1 k2 -> stale_of s2 k2 = stale_of s1 k1.
Proof.
  intros H HK. unfold stale_of. rewrite <- (k_possible KL _ _ _ _ HK), <- (L_flow_level L H).
  destruct (sk_possible k1) eqn:EP; [|reflexivity]. cbn [andb]. f_equal. exact (k_far KL _ _ _ _ HK (l_mark L _ _ H) EP).
Qed.
Lemma stale_req s1 s2 k1 k2 : R s1 s2 -> K (sc_mark s1) (sc_mark s2) k1 k2 ->
  stale_of s2 k2 && sk_required k2 = stale_of s1 k1 && sk_required k1.
Proof.
  intros H HK. rewrite (stale_K _ _ _ _ H HK). unfold stale_of. destruct (sk_possible k1) eqn:EP; [|reflexivity].
  rewrite (k_required KL _ _ _ _ HK EP). reflexivity.
Qed.
Lemma lwp_stale_simple_keys (Q : unit -> bst -> unit -> bst -> Prop) s1 s2 :
  R s1 s2 -> skel_post Q s1 -> wp stale_simple_keys stale_simple_keys Q s1 s2.
Proof.
  intros H HQ. unfold stale_simple_keys. apply lwp_bind. apply lwp_get. cbv beta zeta.
  change (fun k => sk_possible k && (sc_flow_level s1 =? 0)%N
     && ((m_line (sk_mark k) <? m_line (sc_mark s1))%N || (m_index (sk_mark k) + SIMPLE_KEY_MAX <? m_index (sc_mark s1))%N)
     && sk_required k) with (fun k => stale_of s1 k && sk_required k).
  change (fun k => sk_possible k && (sc_flow_level s2 =? 0)%N
     && ((m_line (sk_mark k) <? m_line (sc_mark s2))%N || (m_index (sk_mark k) + SIMPLE_KEY_MAX <? m_index (sc_mark s2))%N)
     && sk_required k) with (fun k => stale_of s2 k && sk_required k).
  rewrite <- (F2_existsb _ (fun k => stale_of s1 k && sk_required k) (fun k => stale_of s2 k && sk_required k) _ _ (k_sks KL _ _ H)).
  2:{ intros k1 k2 HK. symmetry. exact (stale_req _ _ _ _ H HK). }
  destruct (existsb _ (sc_sks s1)); [apply (lwp_fail_mark L); exact H|].
  apply (lwp_put_l R); [|reflexivity|exact HQ]. apply (k_set_sks KL); [exact H|].
  apply (F2_map (K (sc_mark s1) (sc_mark s2))); [exact (k_sks KL _ _ H)|]. intros k1 k2 HK.
  fold (sk_far k1 (sc_mark s1)). fold (sk_far k2 (sc_mark s2)). fold (stale_of s1 k1). fold (stale_of s2 k2).
  rewrite (stale_K _ _ _ _ H HK).
  destruct (stale_of s1 k1); [exact (k_kill KL _ _ _ _ HK)|exact HK].
Qed.

(* increase_flow_level ;;; allow_simple_key ;;; start <- mark ;; skip_non_blank ;;; k start  - the opening of a flow
   collection as ONE step: the same error (site 45) or the same update; the continuation gets the marks of the
   bracket.  (The flow level may go from 0 to 1 here, which makes the adjacency information meaningful: it is,
   because the bracket is consumed in the same step - [k_flow_open].) *)
Lemma lwp_flow_open {B1 B2} (k1 : marker -> BM B1) (k2 : marker -> BM B2) (Q : B1 -> bst -> B2 -> bst -> Prop) s1 s2 :
  R s1 s2 -> rn s1 0 <> 10%N ->
  (forall t1 t2, R t1 t2 -> rm t1 = tl (rm s1) -> wp (k1 (sc_mark s1)) (k2 (sc_mark s2)) Q t1 t2) ->
  wp (bind increase_flow_level (fun _ => bind allow_simple_key (fun _ => bind mark (fun st => bind (skip_non_blank sops) (fun _ => k1 st)))))
     (bind increase_flow_level (fun _ => bind allow_simple_key (fun _ => bind mark (fun st => bind (skip_non_blank sops) (fun _ => k2 st)))))
     Q s1 s2.
Proof.
  intros H N0 HQ. unfold lwp. rewrite !flow_open_eval. rewrite <- (L_flow_level L H).
  destruct (sc_flow_level s1 =? FLOW_LEVEL_MAX)%N.
  - split; [reflexivity|exact (l_mark L _ _ H)].
  - apply HQ; [|reflexivity]. exact (k_flow_open KL _ _ H N0).
Qed.
Lemma lwp_decrease_flow_level (Q : unit -> bst -> unit -> bst -> Prop) s1 s2 :
  R s1 s2 -> skel_post Q s1 -> wp decrease_flow_level decrease_flow_level Q s1 s2.
Proof.
  intros H HQ. unfold decrease_flow_level. apply lwp_bind. apply lwp_get. cbv beta. l_sync L H.
  destruct (N.ltb_spec 0 (sc_flow_level s1)) as [HFL|HFL]; [|apply lwp_ret; apply HQ; [exact H|reflexivity]].
  pose proof (k_sks KL _ _ H) as HK. destruct HK as [|k1 k2 r1 r2 HK HR]; [apply lwp_panic_l|].
  apply (lwp_put_l R); [|reflexivity|exact HQ].
  apply (k_set_sks KL r1 r2 (set_fl (sc_flow_level s1 - 1) s1) (set_fl (sc_flow_level s1 - 1) s2));
    [apply (k_set_fl KL); [exact H|right; lia]|exact HR].
Qed.
End Keys.
