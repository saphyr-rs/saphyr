From Coq Require Import List NArith ZArith Bool Lia.
Import ListNotations.
Require Import Resolver CoreSchema CoreNumber.
Require Export StrEqb.
Open Scope Z_scope.
Arguments N.eqb : simpl never.

(* ---- the generated tables (Gen/ResolverTables.v, re-translated from the Rust sources on every run)
        are exactly what the proofs below are about; an edited table breaks here ---- *)
Lemma tbl_pos_inf : f64_pos_inf_words = [s_dinf; s_dInf; s_dINF; 43%N :: s_dinf; 43%N :: s_dInf; 43%N :: s_dINF].
Proof. reflexivity. Qed.
Lemma tbl_neg_inf : f64_neg_inf_words = [45%N :: s_dinf; 45%N :: s_dInf; 45%N :: s_dINF].
Proof. reflexivity. Qed.
Lemma tbl_nan : f64_nan_words = [s_dnan; s_dNaN; s_dNAN].
Proof. reflexivity. Qed.
Lemma tbl_null : null_words = [s_tilde; s_null; s_NULL].
Proof. reflexivity. Qed.
Lemma tbl_true : true_words = [s_true].
Proof. reflexivity. Qed.
Lemma tbl_false : false_words = [s_false].
Proof. reflexivity. Qed.
Lemma tbl_prefixes : int_prefixes = [([48;120]%N, 16%N); ([48;111]%N, 8%N); ([43]%N, 10%N)].
Proof. reflexivity. Qed.
Lemma tbl_guarded : f64_guarded = true.
Proof. reflexivity. Qed.
Lemma float_char_eq c : float_char c = (is_dig c || ch c 43 || ch c 45 || ch c 46 || ch c 101 || ch c 69).
Proof.
  unfold float_char, in_ranges, f64_guard_chars, is_dig, ch. cbn [existsb fst snd].
  rewrite orb_false_r.
  assert (E : forall k, ((k <=? c)%N && (c <=? k)%N) = N.eqb c k).
  { intros k. destruct (N.eqb_spec c k) as [->|Hne].
    - rewrite N.leb_refl. reflexivity.
    - destruct (N.leb_spec k c), (N.leb_spec c k); cbn; try reflexivity. exfalso; lia. }
  rewrite !E. rewrite !orb_assoc. reflexivity.
Qed.

(* digits and integers *)
Lemma to_digit_spec r c d : to_digit r c = Some d ->
  (d < r /\ ((48 <= c <= 57 /\ d = c - 48) \/ (97 <= c <= 122 /\ d = c - 97 + 10) \/ (65 <= c <= 90 /\ d = c - 65 + 10)))%N.
Proof.
  unfold to_digit. intros H.
  assert (G : forall v, (if (v <? r)%N then Some v else None) = Some d -> (d < r)%N /\ d = v).
  { intros v. destruct (N.ltb_spec v r); [|discriminate]. intros E. inversion E. subst. auto. }
  destruct ((48 <=? c)%N && (c <=? 57)%N) eqn:E1.
  - apply G in H as [L ->]. apply andb_true_iff in E1. rewrite !N.leb_le in E1. auto.
  - destruct ((97 <=? c)%N && (c <=? 122)%N) eqn:E2.
    + apply G in H as [L ->]. apply andb_true_iff in E2. rewrite !N.leb_le in E2. auto.
    + destruct ((65 <=? c)%N && (c <=? 90)%N) eqn:E3; [|discriminate].
      apply G in H as [L ->]. apply andb_true_iff in E3. rewrite !N.leb_le in E3. auto.
Qed.

Lemma to_digit_10 c d : to_digit 10 c = Some d -> is_dig c = true.
Proof. intros H. apply to_digit_spec in H. unfold is_dig. rewrite andb_true_iff, !N.leb_le. lia. Qed.
Lemma to_digit_8 c d : to_digit 8 c = Some d -> is_oct c = true.
Proof. intros H. apply to_digit_spec in H. unfold is_oct. rewrite andb_true_iff, !N.leb_le. lia. Qed.
Lemma to_digit_16 c d : to_digit 16 c = Some d -> is_hexd c = true.
Proof.
  intros H. apply to_digit_spec in H. unfold is_hexd, is_dig. rewrite !orb_true_iff, !andb_true_iff, !N.leb_le. lia.
Qed.

Lemma digits_val_all r p s acc v :
  (forall c d, to_digit r c = Some d -> p c = true) ->
  digits_val r s acc = Some v -> forallb p s = true.
Proof.
  intros Hp. revert acc. induction s as [|c s IH]; intros acc H; [reflexivity|].
  cbn in H |- *. destruct (to_digit r c) eqn:E; [|discriminate].
  rewrite (Hp _ _ E). cbn. eauto.
Qed.

(* decimal digits exclude the letters of the radix prefixes *)
Lemma digits10_first c s acc v : digits_val 10 (c :: s) acc = Some v -> is_dig c = true.
Proof. cbn. destruct (to_digit 10 c) eqn:E; [|discriminate]. intros _. eapply to_digit_10; eauto. Qed.

(* i64::from_str_radix in the vocabulary of the specification *)
Lemma from_str_radix_eq s r :
  from_str_radix s r =
  let '(neg, ds) := sign_split s in
  if nonempty ds then
    match digits_val r ds 0 with
    | Some v => if in_i64 (if neg then - v else v) then Some (if neg then - v else v) else None
    | None => None
    end
  else None.
Proof.
  destruct s as [|c s]; [reflexivity|]. unfold from_str_radix. cbn [sign_split].
  destruct (if ch c 43 then _ else _) as [neg [|d ds]]; reflexivity.
Qed.

Lemma from_str_radix_ns_eq s r :
  from_str_radix_ns s r =
  if starts_signed s then None
  else if nonempty s then match digits_val r s 0 with Some v => if in_i64 v then Some v else None | None => None end
  else None.
Proof.
  unfold from_str_radix_ns. rewrite from_str_radix_eq.
  destruct (sign_split_cases s) as [r'|r'|s' ->]; reflexivity.
Qed.

(* an unsigned from_str_radix result is exactly the digit value, with all digits in the class *)
Lemma from_str_radix_ns_spec s r p v :
  (forall c d, to_digit r c = Some d -> p c = true) ->
  from_str_radix_ns s r = Some v ->
  nonempty s = true /\ forallb p s = true /\ digits_val r s 0 = Some v.
Proof.
  intros Hp. rewrite from_str_radix_ns_eq. destruct (starts_signed s); [discriminate|].
  destruct (nonempty s); [|discriminate]. destruct (digits_val r s 0) eqn:D; [|discriminate].
  destruct (in_i64 z); [|discriminate]. intros H. inversion H. subst. repeat split. eapply digits_val_all; eauto.
Qed.

Definition sound (s : str) (r : scalar) : Prop :=
  match r with
  | SNull => core_null s = true
  | SBool b => core_bool s = Some b
  | SInt z => core_int s = Some z
  | SFloat f => core_float s = Some f
  | SStr t => t = s
  end.

Lemma strip_prefix_app p s r : strip_prefix p s = Some r -> s = p ++ r.
Proof.
  revert s. induction p as [|a p IH]; intros s H; cbn in H.
  - inversion H; reflexivity.
  - destruct s as [|b s]; [discriminate|]. destruct (N.eqb a b) eqn:E; [|discriminate].
    apply N.eqb_eq in E. subst. cbn. f_equal. apply IH. exact H.
Qed.

Lemma strip_prefix_same p r : strip_prefix p (p ++ r) = Some r.
Proof. induction p as [|a p IH]; [reflexivity|]. cbn [app strip_prefix]. rewrite N.eqb_refl. exact IH. Qed.

(* membership in a word list: what holds of every word holds of a member, and a text of which something holds
   that fails of every word is none of them *)
Lemma inl_in s l : inl s l = true -> In s l.
Proof.
  unfold inl. intros H. apply existsb_exists in H as [x [Hin He]]. apply str_eqb_eq in He. subst. exact Hin.
Qed.
Lemma inl_Forall (P : str -> Prop) s l : inl s l = true -> Forall P l -> P s.
Proof. intros E Hl. apply inl_in in E. rewrite Forall_forall in Hl. auto. Qed.
Lemma inl_false (P : str -> Prop) s l : P s -> Forall (fun w => ~ P w) l -> inl s l = false.
Proof. intros Hs Hl. destruct (inl s l) eqn:E; [|reflexivity]. destruct (inl_Forall _ s l E Hl Hs). Qed.

Lemma core_int_plus ds :
  core_int (43%N :: ds) = if nonempty ds && all_in is_dig ds
                          then match digits_val 10 ds 0 with Some v => Some v | None => None end else None.
Proof. reflexivity. Qed.

(* a decimal integer carries no 0x / 0o prefix: the second character would have to be a digit *)
Lemma dec_int_core s z : dec_int s = Some z -> core_int s = Some z.
Proof.
  intros H.
  assert (P : forall x : N, is_dig x = false -> strip_prefix [48%N; x] s = None).
  { intros x Hx. destruct (strip_prefix [48%N; x] s) as [d|] eqn:E; [|reflexivity].
    apply strip_prefix_app in E. subst s. unfold dec_int in H.
    change (sign_split ([48%N; x] ++ d)) with (false, 48%N :: x :: d) in H. cbv beta iota in H.
    destruct (nonempty _ && all_in is_dig _) eqn:D in H; [|discriminate].
    apply andb_true_iff in D as [_ D]. unfold all_in in D. cbn [forallb] in D. rewrite Hx, andb_false_r in D. discriminate. }
  unfold core_int. rewrite (P 120%N), (P 111%N) by reflexivity. exact H.
Qed.

(* parse::<i64>() reads exactly the decimal integers that fit *)
Lemma parse_i64_dec_int s :
  parse_i64 s = match dec_int s with Some z => if in_i64 z then Some z else None | None => None end.
Proof.
  unfold parse_i64, dec_int. rewrite from_str_radix_eq. destruct (sign_split s) as [neg d].
  destruct (nonempty d); [|reflexivity]. cbn [andb]. destruct (digits_val 10 d 0) as [v|] eqn:D.
  - unfold all_in. rewrite (digits_val_all 10 is_dig d 0 v to_digit_10 D). reflexivity.
  - destruct (all_in is_dig d); reflexivity.
Qed.

Lemma parse_i64_sound v i : parse_i64 v = Some i -> core_int v = Some i.
Proof.
  rewrite parse_i64_dec_int. destruct (dec_int v) as [z|] eqn:D; [|discriminate].
  destruct (in_i64 z); [|discriminate]. intros H. inversion H. subst. exact (dec_int_core _ _ D).
Qed.

(* floats *)
Lemma float_char_ch c k : float_char k = true -> ch c k = true -> float_char c = true.
Proof. intros Hk H. apply N.eqb_eq in H. subst c. exact Hk. Qed.

Lemma float_char_sign_split s : forallb float_char (snd (sign_split s)) = forallb float_char s.
Proof. destruct (sign_split_cases s); reflexivity. Qed.

Lemma float_char_inf_list b : forallb float_char b = true -> inl b [s_dinf; s_dInf; s_dINF] = false.
Proof. intros H. apply (inl_false (fun w => forallb float_char w = true)); [exact H|]. repeat constructor; discriminate. Qed.
Lemma float_char_nan_list b : forallb float_char b = true -> inl b [s_dnan; s_dNaN; s_dNAN] = false.
Proof. intros H. apply (inl_false (fun w => forallb float_char w = true)); [exact H|]. repeat constructor; discriminate. Qed.

Lemma lower_float_char c : float_char c = true -> lower c <> 105%N /\ lower c <> 110%N.
Proof.
  rewrite float_char_eq. unfold lower, is_dig, ch. intros H.
  repeat (apply orb_true_iff in H; destruct H as [H|H]);
    try (apply N.eqb_eq in H; subst c; vm_compute; split; discriminate).
  apply andb_true_iff in H as [A B]. apply N.leb_le in A, B.
  assert (E : ((65 <=? c)%N && (c <=? 90)%N) = false).
  { apply andb_false_iff. left. apply N.leb_gt. lia. }
  rewrite E. split; lia.
Qed.

Lemma ieq_float_char body w c0 :
  forallb float_char body = true -> hd_error w = Some c0 -> (c0 = 105%N \/ c0 = 110%N) -> ieq body w = false.
Proof.
  intros HF Hw Hc. unfold ieq. destruct (str_eqb (map lower body) w) eqn:E; [|reflexivity].
  apply str_eqb_eq in E. destruct body as [|b body]; [subst w; discriminate|].
  cbn in E. subst w. cbn in Hw. inversion Hw; subst c0.
  cbn in HF. apply andb_true_iff in HF as [HF _].
  destruct (lower_float_char _ HF) as [A B]. destruct Hc; congruence.
Qed.

(* f64::from_str after its sign *)
Definition rust_body (neg : bool) (body : str) : option fval :=
  if ieq body w_inf || ieq body w_infinity then Some (FInf neg)
  else if ieq body w_nan then Some FNan
  else match rust_number body with Some (m, e) => Some (FDec neg m e) | None => None end.
Lemma rust_parse_f64_eq s :
  rust_parse_f64 s = match s with [] => None | _ :: _ => let '(neg, body) := sign_split s in rust_body neg body end.
Proof. destruct s; reflexivity. Qed.
(* the guard of parse_f64 leaves no letter for inf / infinity / nan: the body is read as a number or not at all *)
Lemma rust_body_number neg body :
  forallb float_char body = true ->
  rust_body neg body = match core_number body with Some (m, e) => Some (FDec neg m e) | None => None end.
Proof.
  intros HB. unfold rust_body.
  rewrite (ieq_float_char body w_inf 105%N HB eq_refl (or_introl eq_refl)).
  rewrite (ieq_float_char body w_infinity 105%N HB eq_refl (or_introl eq_refl)).
  rewrite (ieq_float_char body w_nan 110%N HB eq_refl (or_intror eq_refl)).
  rewrite rust_number_core. reflexivity.
Qed.

Lemma rust_f64_sound v f :
  forallb float_char v = true -> rust_parse_f64 v = Some f -> core_float v = Some f.
Proof.
  intros HF. rewrite rust_parse_f64_eq. destruct v as [|c r]; [discriminate|]. unfold core_float.
  rewrite (float_char_nan_list _ HF). rewrite <- float_char_sign_split in HF.
  destruct (sign_split (c :: r)) as [neg body]. cbn [snd] in HF.
  rewrite (rust_body_number _ _ HF), (float_char_inf_list _ HF). intros H. exact H.
Qed.

Lemma parse_f64_sound v f : parse_f64 v = Some f -> core_float v = Some f.
Proof.
  unfold parse_f64. rewrite tbl_pos_inf, tbl_neg_inf, tbl_nan, tbl_guarded.
  destruct (inl v _) eqn:E1.
  { intros H. inversion H. apply (inl_Forall (fun w => core_float w = Some (FInf false)) v _ E1). repeat constructor. }
  destruct (inl v [45%N :: s_dinf; 45%N :: s_dInf; 45%N :: s_dINF]) eqn:E2.
  { intros H. inversion H. apply (inl_Forall (fun w => core_float w = Some (FInf true)) v _ E2). repeat constructor. }
  destruct (inl v [s_dnan; s_dNaN; s_dNAN]) eqn:E3.
  { intros H. inversion H. apply (inl_Forall (fun w => core_float w = Some FNan) v _ E3). repeat constructor. }
  destruct (forallb float_char v) eqn:HF; [|discriminate].
  apply rust_f64_sound; exact HF.
Qed.

Lemma parse_tail_sound v : sound v (parse_tail v).
Proof.
  unfold parse_tail. rewrite tbl_null, tbl_true, tbl_false.
  destruct (inl v [s_tilde; s_null; s_NULL]) eqn:E1; [apply (inl_Forall (fun w => sound w SNull) v _ E1); repeat constructor|].
  destruct (inl v [s_true]) eqn:E2; [apply (inl_Forall (fun w => sound w (SBool true)) v _ E2); repeat constructor|].
  destruct (inl v [s_false]) eqn:E3; [apply (inl_Forall (fun w => sound w (SBool false)) v _ E3); repeat constructor|].
  destruct (parse_i64 v) eqn:E4; [cbn; apply parse_i64_sound; exact E4|].
  destruct (parse_f64 v) eqn:E5; [cbn; apply parse_f64_sound; exact E5|].
  reflexivity.
Qed.

(* the prefix chain either falls through to the tail or returns what some prefix of the table parsed *)
Lemma parse_prefixed_cases pre v :
  parse_prefixed pre v = parse_tail v \/
  exists p radix number i, In (p, radix) pre /\ strip_prefix p v = Some number /\
                           from_str_radix_ns number radix = Some i /\ parse_prefixed pre v = SInt i.
Proof.
  induction pre as [|[p radix] rest IH]; [left; reflexivity|]. cbn [parse_prefixed].
  destruct (strip_prefix p v) as [number|] eqn:P.
  - destruct (from_str_radix_ns number radix) as [i|] eqn:R; [right|left; reflexivity].
    exists p, radix, number, i. repeat split; [left; reflexivity|exact P|exact R].
  - destruct IH as [E|(p' & radix' & number & i & Hin & H)]; [left; exact E|right].
    exists p', radix', number, i. split; [right; exact Hin|exact H].
Qed.

Theorem C08_soundness_fixed v : sound v (parse_from_cow v).
Proof.
  unfold parse_from_cow.
  destruct (parse_prefixed_cases int_prefixes v) as [->|(p & radix & number & i & Hin & P & R & ->)];
    [apply parse_tail_sound|].
  apply strip_prefix_app in P. subst v. rewrite tbl_prefixes in Hin. cbn [sound].
  destruct Hin as [E|[E|[E|[]]]]; inversion E; subst p radix; clear E.
  - destruct (from_str_radix_ns_spec _ _ is_hexd _ to_digit_16 R) as (A & B & C).
    unfold core_int. rewrite strip_prefix_same. unfold all_in. rewrite A, B. exact C.
  - destruct (from_str_radix_ns_spec _ _ is_oct _ to_digit_8 R) as (A & B & C).
    unfold core_int. change (strip_prefix [48; 120]%N ([48; 111]%N ++ number)) with (@None str).
    rewrite strip_prefix_same. unfold all_in. rewrite A, B. exact C.
  - destruct (from_str_radix_ns_spec _ _ is_dig _ to_digit_10 R) as (A & B & C).
    cbn [app]. rewrite core_int_plus. unfold all_in. rewrite A, B, C. reflexivity.
Qed.
Print Assumptions C08_soundness_fixed.
