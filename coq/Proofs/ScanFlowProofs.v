(* C03, scanner half: the scanner model (Model/SFetch.v over the string input) run on the text of a single-line flow
   collection of one-word plain scalars (Spec/FlowText.v) delivers exactly the tokens of the layout tree the text denotes;
   composed with the parser theorem: text -> events.
   Method: symbolic execution of the monadic model by [cbn] on states in the normal form [mkst] (everything the flow
   sub-language never touches is fixed: indent -1, no block indents, stream started), one lemma per kind of token
   ([ { ] } , : word; what the model does at the indicators and at the end of the document is in FlowSkeleton.v, here
   the blanks of the sub-language and the exact positions are put in), then induction on the text grammar.  The simple-key stack, the token queue with the back-inserted
   Key / FlowMappingStart tokens and the per-level implicit-mapping states are tracked exactly. *)
From Coq Require Import List NArith ZArith Bool Arith Lia.
Import ListNotations.
Require Import Parser SBase SPrim SDir SScalar SFetch Pipe Drivers TokenGrammar FlowText ScanSimpl.
Require Export FlowSkeleton ScanLoops.
Open Scope N_scope.
Open Scope mon_scope.

(* the loops and the sub-scanners are only entered through their lemmas *)
#[local] Arguments plain_chunk : simpl never.

(* states in normal form *)
Definition mkst (chars : list chr) (look : nat) (mk : marker) (toks : list token) (adj : N) (ska : bool)
   (sks : list simple_key) (fl : N) (tp : N) (ta : bool) (lws : bool) (ifms : list ims) : sc strin :=
  {| sc_in := {| si_chars := chars; si_look := look |}; sc_mark := mk; sc_tokens := toks;
     sc_stream_start := true; sc_stream_end := false; sc_adjacent := adj; sc_ska := ska; sc_sks := sks;
     sc_indent := (-1)%Z; sc_indents := []; sc_flow_level := fl; sc_tokens_parsed := tp;
     sc_token_available := ta; sc_lws := lws; sc_ifms := ifms |}.
(* a position on the first line *)
Definition mk1 (n : N) : marker := {| m_index := n; m_line := 1; m_col := n |}.

Definition skey (p : bool) (tn : N) (m : marker) : simple_key :=
  {| sk_possible := p; sk_required := false; sk_token_number := tn; sk_mark := m |}.
Definition dummy_key : simple_key := skey false 0 mk0.

(* characters of words *)
Lemma wch_facts c : wch c = true ->
  is_blank_or_breakz c = false /\ is_flow c = false /\
  (c =? 58) = false /\ (c =? 35) = false /\ (c =? 45) = false /\ (c =? 63) = false /\ (c =? 42) = false /\
  (c =? 38) = false /\ (c =? 33) = false /\ (c =? 124) = false /\ (c =? 62) = false /\ (c =? 39) = false /\
  (c =? 34) = false /\ (c =? 37) = false /\ (c =? 64) = false /\ (c =? 96) = false.
Proof.
  unfold wch, special. cbn [existsb]. intros H.
  apply andb_prop in H as [H H3]. apply andb_prop in H as [H1 H2].
  apply negb_true_iff in H1, H2, H3. repeat (apply orb_false_elim in H3 as [? H3]). tauto.
Qed.

Lemma blankz_facts c : is_blank_or_breakz c = false ->
  (c =? 32) = false /\ (c =? 9) = false /\ (c =? 10) = false /\ (c =? 13) = false /\ (c =? 0) = false.
Proof.
  unfold is_blank_or_breakz, is_blank, is_breakz, is_break, is_z. intros H.
  repeat (apply orb_false_elim in H as [H ?]). repeat match goal with H : _ || _ = false |- _ => apply orb_false_elim in H as [? ?] end. tauto.
Qed.
Lemma flow_facts c : is_flow c = false ->
  (c =? 44) = false /\ (c =? 91) = false /\ (c =? 93) = false /\ (c =? 123) = false /\ (c =? 125) = false.
Proof.
  unfold is_flow. intros H. repeat (apply orb_false_elim in H as [H ?]). tauto.
Qed.

(* fetch_next_token: the part before the dispatch on the first character *)
Definition fnt_rest (F : nat) : M unit :=
  s <- get ;;
  c0 <- peek str_ops ;;
  dstart <- (if m_col (sc_mark s) =? 0 then if c0 =? 37 then ret false else next_is_document_start str_ops else ret false) ;;
  dend <- (if (m_col (sc_mark s) =? 0) && negb (c0 =? 37) && negb dstart then next_is_document_end str_ops else ret false) ;;
  if (m_col (sc_mark s) =? 0) && (c0 =? 37) then fetch_directive str_ops F
  else if dstart then fetch_document_indicator str_ops TDocumentStart
  else if dend then
    fetch_document_indicator str_ops TDocumentEnd ;;;
    skip_ws_to_eol str_ops F SkipYes ;;;
    b <- next_is str_ops is_breakz ;;
    if b then ret tt else m <- mark ;; fail 101 m
  else
  if (Z.of_N (m_col (sc_mark s)) <? sc_indent s)%Z then fail 102 (sc_mark s) else
  c <- peek str_ops ;; nc <- peekn str_ops 1 ;;
  let fl := 0 <? sc_flow_level s in
  let bz := is_blank_or_breakz nc in
  if c =? 91 then fetch_flow_collection_start str_ops F true
  else if c =? 123 then fetch_flow_collection_start str_ops F false
  else if c =? 93 then fetch_flow_collection_end str_ops F true
  else if c =? 125 then fetch_flow_collection_end str_ops F false
  else if c =? 44 then fetch_flow_entry str_ops F
  else if (c =? 45) && bz then fetch_block_entry str_ops F
  else if (c =? 63) && bz then fetch_key str_ops F
  else if (c =? 58) && bz then fetch_value str_ops F
  else if (c =? 58) && fl && (is_flow nc || (m_index (sc_mark s) =? sc_adjacent s)) then fetch_flow_value str_ops F
  else if c =? 42 then fetch_anchor str_ops F true
  else if c =? 38 then fetch_anchor str_ops F false
  else if c =? 33 then fetch_tag str_ops F
  else if (c =? 124) && negb fl then fetch_block_scalar str_ops F true
  else if (c =? 62) && negb fl then fetch_block_scalar str_ops F false
  else if c =? 39 then fetch_flow_scalar str_ops F true
  else if c =? 34 then fetch_flow_scalar str_ops F false
  else if (c =? 45) && negb bz then fetch_plain_scalar str_ops F
  else if ((c =? 58) || (c =? 63)) && negb bz && negb fl then fetch_plain_scalar str_ops F
  else if (c =? 37) || (c =? 64) || (c =? 96) then fail 103 (sc_mark s)
  else fetch_plain_scalar str_ops F.

#[local] Arguments fnt_rest : simpl never.

(* the same function as in FlowSkeleton.v, where the if-chain is DispatchTie.dispatch_tail *)
Lemma fnt_rest_eq F : fnt_rest F = FlowSkeleton.fnt_rest F.
Proof. reflexivity. Qed.

Lemma fnt_unfold F :
  fetch_next_token str_ops F =
  (look str_ops 1 ;;;
   s <- get ;;
   if negb (sc_stream_start s) then fetch_stream_start else
   skip_to_next_token str_ops F ;;;
   stale_simple_keys ;;;
   m <- mark ;;
   unroll_indent (Z.of_N (m_col m)) ;;;
   look str_ops 4 ;;;
   z <- next_is str_ops is_z ;;
   if z then fetch_stream_end else fnt_rest F).
Proof. rewrite fnt_rest_eq. exact (FlowSkeleton.fnt_unfold F). Qed.

Ltac ev := repeat (cbn; rwf).

(* rewrite with a lemma stated on [mkst] in a goal where the states are unfolded records *)
Ltac rw_st E := let H := fresh "E" in pose proof E as H; unfold mkst in H; rewrite H; clear H.

Lemma max_1_1 l : Nat.max (Nat.max l 1) 1 = Nat.max l 1.
Proof. lia. Qed.

Lemma mk1_adv n k : adv k (mk1 n) = mk1 (n + k).
Proof. reflexivity. Qed.

(* blanks before a token (the one after ':') *)
Lemma skip_spaces k : forall F cs l n q adj ska sks fl tp ta lws ifms c,
  (k < F)%nat -> is_blank_or_breakz c = false -> (c =? 35) = false ->
  skip_to_next_token str_ops F (mkst (repeat 32 k ++ c :: cs) l (mk1 n) q adj ska sks fl tp ta lws ifms)
  = Ok (tt, mkst (c :: cs) (Nat.max l 1) (mk1 (n + N.of_nat k)) q adj ska sks fl tp ta lws ifms).
Proof.
  induction k as [|k IH]; intros F cs l n q adj ska sks fl tp ta lws ifms c HF Hb H35;
    (destruct F as [|F]; [lia|]); apply blankz_facts in Hb as (H32 & H9 & H10 & H13 & H0).
  - unfold skip_to_next_token, mkst. ev. rewrite N.add_0_r. reflexivity.
  - unfold skip_to_next_token. fold (skip_to_next_token str_ops F). unfold mkst. ev.
    change (skip_to_next_token str_ops F (mkst (repeat 32 k ++ c :: cs) (Nat.max l 1) (mk1 (n + 1)) q adj ska sks fl tp ta lws ifms)
            = Ok (tt, mkst (c :: cs) (Nat.max l 1) (mk1 (n + N.of_nat (S k))) q adj ska sks fl tp ta lws ifms)).
    rewrite IH; [| lia | unfold is_blank_or_breakz, is_blank, is_breakz, is_break, is_z; rwf; reflexivity | exact H35].
    rewrite max_1_1. do 3 f_equal. unfold mk1. f_equal; lia.
Qed.

Lemma pos_ne0 n k : 0 < n -> (n + N.of_nat k =? 0) = false.
Proof. intros H. apply N.eqb_neq. lia. Qed.

(* fetch_next_token in front of a token on the first line, away from column 0: the blanks are skipped, the first character
   of the token decides *)
Lemma fnt_prefix F k c cs l n q adj ska sks fl tp ta lws ifms :
  (k < F)%nat -> is_blank_or_breakz c = false -> (c =? 35) = false -> 0 < fl -> 0 < n ->
  fetch_next_token str_ops F (mkst (repeat 32 k ++ c :: cs) l (mk1 n) q adj ska sks fl tp ta lws ifms)
  = fnt_tail F (mkst (c :: cs) (Nat.max l 4) (mk1 (n + N.of_nat k)) q adj ska sks fl tp ta lws ifms).
Proof.
  intros HF Hb H35 Hfl Hn. pose proof (blankz_facts c Hb) as (_ & _ & _ & _ & H0).
  replace (Nat.max l 4) with (Nat.max (Nat.max (Nat.max l 1) 1) 4) by lia.
  apply (fnt_skip F _ l (mk1 n) q adj ska sks fl tp ta lws ifms (c :: cs) (Nat.max (Nat.max l 1) 1) (mk1 (n + N.of_nat k)) ska lws).
  - exact (skip_spaces k F cs (Nat.max l 1) n q adj ska sks fl tp ta lws ifms c HF Hb H35).
  - left. exact Hfl.
  - exact H0.
  - left. apply pos_ne0, Hn.
Qed.

(* one lemma per kind of token *)
Definition not_ws (c : N) : Prop := (c =? 32) = false /\ (c =? 9) = false /\ (c =? 35) = false.

#[local] Arguments skip_ws_to_eol : simpl never.

(* skip_ws_to_eol in front of a token / over one blank *)
Lemma ws_none F (s : sc strin) c' cs : si_chars (sc_in s) = c' :: cs -> not_ws c' -> (1 <= F)%nat ->
  skip_ws_to_eol str_ops F SkipYes s
  = Ok ((false, false), set_in {| si_chars := c' :: cs; si_look := Nat.max (si_look (sc_in s)) 1 |} s).
Proof.
  intros Hc (H32 & H9 & H35) HF. destruct F as [|F]; [lia|].
  destruct s as [[chars look] mk toks ss se adj ska sks ind inds fl tp ta lws ifms]. cbn in Hc. subst chars.
  unfold skip_ws_to_eol, in_skip_ws_to_eol. ev. unfold adv. destruct mk as [mi ml mc]. cbn. rewrite !N.add_0_r. reflexivity.
Qed.

Lemma ws_one F (s : sc strin) c' cs : si_chars (sc_in s) = 32 :: c' :: cs -> not_ws c' -> (2 <= F)%nat ->
  skip_ws_to_eol str_ops F SkipYes s
  = Ok ((false, true), set_mark (adv 1 (sc_mark s)) (set_in {| si_chars := c' :: cs; si_look := Nat.max (si_look (sc_in s)) 1 |} s)).
Proof.
  intros Hc (H32 & H9 & H35) HF. destruct F as [|[|F]]; [lia|lia|].
  destruct s as [[chars look] mk toks ss se adj ska sks ind inds fl tp ta lws ifms]. cbn in Hc. subst chars.
  unfold skip_ws_to_eol, in_skip_ws_to_eol. ev. rewrite max_1_1. unfold adv. destruct mk as [mi ml mc]. cbn. rewrite !N.add_0_l. reflexivity.
Qed.

#[local] Arguments insert_token : simpl never.

(* words *)
(* what ends a word in flow context: a flow indicator of the sub-language or ': ' *)
Definition stopc (x : N) (rest : list N) : Prop :=
  x = 44 \/ x = 93 \/ x = 125 \/ (x = 58 /\ exists r, rest = 32 :: r).

Lemma chunk_word w : forall fuel j acc l n q adj ska sks fl tp ta ifms x rest,
  forallb wch w = true -> stopc x rest -> 0 < fl -> (2 * length w + 2 <= fuel)%nat ->
  exists l', plain_chunk str_ops fuel j acc (mkst (w ++ x :: rest) l (mk1 n) q adj ska sks fl tp ta false ifms)
  = Ok (rev w ++ acc, mkst (x :: rest) l' (mk1 (n + N.of_nat (length w))) q adj ska sks fl tp ta false ifms).
Proof.
  induction w as [|c w IH]; intros fuel j acc l n q adj ska sks fl tp ta ifms x rest Hw Hx Hfl Hf;
    destruct (fl_pos_facts fl Hfl) as [Hf0 Hf1].
  - (* the stop character *)
    assert (Hstop : forall fuel' j' l', (Nat.leb 127 j' = false) ->
              plain_chunk str_ops (S fuel') j' acc (mkst (x :: rest) l' (mk1 n) q adj ska sks fl tp ta false ifms)
              = Ok (acc, mkst (x :: rest) l' (mk1 n) q adj ska sks fl tp ta false ifms)).
    { intros fuel' j' l' Hj. rewrite plain_chunk_S. cbn [bufmaxlen str_ops Nat.sub]. rewrite Hj. unfold mkst.
      destruct Hx as [-> | [-> | [-> | [-> [r ->]]]]]; cbn; rewrite ?Hf1; cbn; reflexivity. }
    cbn [app length rev N.of_nat]. rewrite N.add_0_r.
    destruct fuel as [|[|fuel]]; [cbn in Hf; lia|cbn in Hf; lia|].
    destruct (Nat.leb 127 j) eqn:Hj.
    + rewrite plain_chunk_S. cbn [bufmaxlen str_ops Nat.sub]. rewrite Hj. unfold mkst at 1. cbn.
      eexists. rw_st (Hstop fuel 0%nat (Nat.max l 128) eq_refl). reflexivity.
    + eexists. apply Hstop. exact Hj.
  - cbn [forallb] in Hw. apply andb_prop in Hw as [Hc Hw].
    destruct (wch_facts c Hc) as (Hb & Hfw & H58 & _).
    assert (Hstep : forall fuel' j' l', (Nat.leb 127 j' = false) ->
              plain_chunk str_ops (S fuel') j' acc (mkst (c :: w ++ x :: rest) l' (mk1 n) q adj ska sks fl tp ta false ifms)
              = plain_chunk str_ops fuel' (S j') (c :: acc) (mkst (w ++ x :: rest) l' (mk1 (n + 1)) q adj ska sks fl tp ta false ifms)).
    { intros fuel' j' l' Hj. rewrite plain_chunk_S. cbn [bufmaxlen str_ops Nat.sub]. rewrite Hj. unfold mkst.
      cbn. rewrite Hb. cbn. rewrite H58, Hfw, Hf1. cbn. reflexivity. }
    cbn [length] in Hf. cbn [app].
    assert (Hgoal : forall l1 fuel1, (2 * length w + 2 <= fuel1)%nat ->
              exists l', plain_chunk str_ops fuel1 (S O) (c :: acc) (mkst (w ++ x :: rest) l1 (mk1 (n + 1)) q adj ska sks fl tp ta false ifms) =
              Ok (rev (c :: w) ++ acc, mkst (x :: rest) l' (mk1 (n + N.of_nat (length (c :: w)))) q adj ska sks fl tp ta false ifms)).
    { intros l1 fuel1 Hf1'. destruct (IH fuel1 (S O) (c :: acc) l1 (n + 1) q adj ska sks fl tp ta ifms x rest Hw Hx Hfl Hf1') as (l' & E).
      exists l'. rewrite E. cbn [rev length]. rewrite <- app_assoc. cbn [app].
      replace (n + 1 + N.of_nat (length w)) with (n + N.of_nat (S (length w))) by lia. reflexivity. }
    destruct fuel as [|[|fuel]]; [lia|lia|].
    destruct (Nat.leb 127 j) eqn:Hj.
    + rewrite plain_chunk_S. cbn [bufmaxlen str_ops Nat.sub]. rewrite Hj. unfold mkst at 1. cbn.
      rw_st (Hstep fuel 0%nat (Nat.max l 128) eq_refl). apply Hgoal. lia.
    + rewrite (Hstep (S fuel) j l Hj).
      destruct (IH (S fuel) (S j) (c :: acc) l (n + 1) q adj ska sks fl tp ta ifms x rest Hw Hx Hfl ltac:(lia)) as (l' & E).
      exists l'. rewrite E. cbn [rev length]. rewrite <- app_assoc. cbn [app].
      replace (n + 1 + N.of_nat (length w)) with (n + N.of_nat (S (length w))) by lia. reflexivity.
Qed.

Lemma scan_word F c w x rest l n q adj ska sks fl tp ta lws ifms :
  forallb wch (c :: w) = true -> stopc x rest -> 0 < fl -> (n =? 0) = false -> (2 * length w + 3 <= F)%nat ->
  exists l',
  scan_plain_scalar str_ops F (mkst (c :: w ++ x :: rest) l (mk1 n) q adj ska sks fl tp ta lws ifms)
  = Ok ((spn (mk1 n) (mk1 (n + N.of_nat (length (c :: w)))), TScalar Plain (c :: w)),
        mkst (x :: rest) l' (mk1 (n + N.of_nat (length (c :: w)))) q adj ska sks fl tp ta false ifms).
Proof.
  intros Hw Hx Hfl Hn HF. destruct (fl_pos_facts fl Hfl) as [Hf0 Hf1].
  cbn [forallb] in Hw. apply andb_prop in Hw as [Hc Hw].
  destruct (wch_facts c Hc) as (Hb & Hfw & H58 & H35 & H45 & _).
  destruct F as [|F]; [lia|].
  destruct (chunk_word w (S F) 0%nat [c] (Nat.max (Nat.max l 4) 128) (n + 1) q adj ska sks fl tp ta ifms x rest Hw Hx Hfl ltac:(lia)) as (l' & Ech).
  exists l'.
  assert (Hne : exists a t, rev w ++ [c] = a :: t).
  { destruct (rev w ++ [c]) as [|a t] eqn:E; [destruct (rev w); discriminate|eauto]. }
  destruct Hne as (a & t & Ea).
  unfold scan_plain_scalar, mkst. cbn. rewrite Hf1, col_not_neg. cbn.
  rewrite Hn, andb_false_r. cbn. rewrite H35. cbn. rewrite Hf1, H45. cbn. rewrite Hb. cbn. rewrite H58, Hfw. cbn.
  assert (Enls : (if lws then (@nil chr, false, 0, @nil chr) else ([], false, 0, [])) = ([], false, 0, [])) by (destruct lws; reflexivity).
  rewrite Enls; cbn; change (adv 1 (mk1 n)) with (mk1 (n + 1)); unfold chr in *; rw_st Ech; cbn;
    (destruct Hx as [-> | [-> | [-> | [-> [r ->]]]]]; cbn; rewrite Ea; cbn; change (rev t ++ [a]) with (rev (a :: t)); rewrite <- Ea, rev_app_distr, rev_involutive; cbn [rev app];
     replace (n + 1 + N.of_nat (length w)) with (n + N.pos (Pos.of_succ_nat (length w))) by lia; reflexivity).
Qed.

Lemma word_step F c w x rest l n q adj ska p tn m tls fl tp ta lws ifms :
  forallb wch (c :: w) = true -> stopc x rest -> 0 < fl -> (n =? 0) = false -> (2 * length w + 3 <= F)%nat ->
  exists l',
  fetch_plain_scalar str_ops F (mkst (c :: w ++ x :: rest) l (mk1 n) q adj ska (skey p tn m :: tls) fl tp ta lws ifms)
  = Ok (tt, mkst (x :: rest) l' (mk1 (n + N.of_nat (length (c :: w))))
              (q ++ [(spn (mk1 n) (mk1 (n + N.of_nat (length (c :: w)))), TScalar Plain (c :: w))]) adj false
              ((if ska then skey true (tp + N.of_nat (length q)) (mk1 n) else skey p tn m) :: tls) fl tp ta false ifms).
Proof.
  intros Hw Hx Hfl Hn HF. destruct (fl_pos_facts fl Hfl) as [Hf0 Hf1].
  destruct (scan_word F c w x rest l n q adj false
              ((if ska then skey true (tp + N.of_nat (length q)) (mk1 n) else skey p tn m) :: tls) fl tp ta lws ifms Hw Hx Hfl Hn HF)
    as (l' & E).
  exists l'. unfold skey in E. unfold fetch_plain_scalar, mkst, skey. destruct ska; cbn.
  - rewrite Hf0. cbn. rw_st E. cbn. reflexivity.
  - rw_st E. cbn. reflexivity.
Qed.

(* fetch_next_token on each kind of token, in flow context, away from column 0 *)
Lemma fnt_open F k (seq : bool) c' cs l n q adj ska hd tls fl tp ta lws ifms :
  (k < F)%nat -> 0 < fl -> fl < 255 -> 0 < n -> not_ws c' ->
  fetch_next_token str_ops F (mkst (repeat 32 k ++ (if seq then 91 else 123) :: c' :: cs) l (mk1 n) q adj ska (hd :: tls) fl tp ta lws ifms)
  = Ok (tt, mkst (c' :: cs) (Nat.max (Nat.max l 4) 1) (mk1 (n + N.of_nat k + 1))
              (q ++ [(spn (mk1 (n + N.of_nat k)) (mk1 (n + N.of_nat k + 1)), if seq then TFlowSequenceStart else TFlowMappingStart)]) adj true
              (dummy_key :: (if ska then skey true (tp + N.of_nat (length q)) (mk1 (n + N.of_nat k)) else hd) :: tls) (fl + 1) tp ta false
              ((if seq then ImPossible else ImMapping) :: ifms)).
Proof.
  intros HF Hfl H255 Hn Hws.
  rewrite (fnt_prefix F k (open_char seq)) by (try assumption; destruct seq; reflexivity).
  etransitivity; [apply tail_open|].
  apply (open_step F (Nat.max l 4) (mk1 (n + N.of_nat k)) q adj tp ta seq (open_char seq) (c' :: cs) ska hd tls fl lws ifms (false, false)).
  - apply N.eqb_neq. lia.
  - etransitivity; [apply (ws_none F _ c' cs); [reflexivity | exact Hws | lia] | reflexivity].
Qed.

Lemma fnt_close F (seq : bool) c' cs l n q adj ska p tn m hd2 tls fl tp ta lws top ifr :
  (1 <= F)%nat -> 0 < n -> not_ws c' -> top_ok seq top ->
  exists adj',
  fetch_next_token str_ops F (mkst ((if seq then 93 else 125) :: c' :: cs) l (mk1 n) q adj ska (skey p tn m :: hd2 :: tls) (fl + 1) tp ta lws (top :: ifr))
  = Ok (tt, mkst (c' :: cs) (Nat.max (Nat.max l 4) 1) (mk1 (n + 1))
              ((q ++ (if seq then fme top (mk1 n) else [])) ++ [(spn (mk1 n) (mk1 (n + 1)), if seq then TFlowSequenceEnd else TFlowMappingEnd)])
              adj' false (hd2 :: tls) fl tp ta false ifr).
Proof.
  intros HF Hn Hws Htop. exists (if 0 <? fl then m_index (mk1 (n + 1)) else adj). change (if seq then 93 else 125) with (close_char seq).
  pose proof (fnt_prefix F 0 (close_char seq) (c' :: cs) l n q adj ska (skey p tn m :: hd2 :: tls) (fl + 1) tp ta lws (top :: ifr)) as P.
  cbn [repeat app N.of_nat] in P. rewrite N.add_0_r in P.
  rewrite P by (try assumption; try lia; destruct seq; reflexivity).
  etransitivity; [apply tail_close|].
  apply (close_step F (Nat.max l 4) (mk1 n) q adj tp ta seq (close_char seq) (c' :: cs) ska p tn m hd2 tls fl lws top ifr (false, false)).
  - exact Htop.
  - etransitivity; [apply (ws_none F _ c' cs); [reflexivity | exact Hws | lia] | reflexivity].
Qed.

Lemma fnt_comma F c' cs l n q adj ska p tn m tls fl tp ta lws top ifr :
  (2 <= F)%nat -> 0 < fl -> 0 < n -> not_ws c' ->
  fetch_next_token str_ops F (mkst (44 :: 32 :: c' :: cs) l (mk1 n) q adj ska (skey p tn m :: tls) fl tp ta lws (top :: ifr))
  = Ok (tt, mkst (c' :: cs) (Nat.max (Nat.max l 4) 1) (mk1 (n + 1 + 1))
              ((q ++ fme top (mk1 n)) ++ [(spn (mk1 n) (mk1 (n + 1 + 1)), TFlowEntry)])
              adj true (skey false tn m :: tls) fl tp ta false (after_pair top :: ifr)).
Proof.
  intros HF Hfl Hn Hws.
  pose proof (fnt_prefix F 0 44 (32 :: c' :: cs) l n q adj ska (skey p tn m :: tls) fl tp ta lws (top :: ifr)) as P.
  cbn [repeat app N.of_nat] in P. rewrite N.add_0_r in P.
  rewrite P by (try reflexivity; try assumption; lia).
  etransitivity; [apply tail_comma|].
  apply (comma_step F (Nat.max l 4) (mk1 n) q adj tp ta (32 :: c' :: cs) ska p tn m tls fl lws top ifr (false, true)).
  etransitivity; [apply (ws_one F _ c' cs); [reflexivity | exact Hws | exact HF] | reflexivity].
Qed.

(* ': ' behind a one-word key on the same line *)
Lemma fnt_value F cs l n q0 kt adj ska nk tls fl tp ta lws top ifr :
  (1 <= F)%nat -> 0 < fl -> 0 < n -> (is_ifm top = true -> n <= nk + SIMPLE_KEY_MAX) ->
  fetch_next_token str_ops F (mkst (58 :: 32 :: cs) l (mk1 n) (q0 ++ [kt]) adj ska
                               (skey true (tp + N.of_nat (length q0)) (mk1 nk) :: tls) fl tp ta lws (top :: ifr))
  = Ok (tt, mkst (32 :: cs) (Nat.max l 4) (mk1 (n + 1))
              ((q0 ++ (if starts_ifm top then [(span_empty (mk1 nk), TFlowMappingStart)] else []) ++ [(span_empty (mk1 nk), TKey); kt])
                ++ [(span_empty (mk1 n), TValue)])
              adj false (skey false (tp + N.of_nat (length q0)) (mk1 nk) :: tls) fl tp ta false
              ((if starts_ifm top then ImInside else top) :: ifr)).
Proof.
  intros HF Hfl Hn Hlim.
  pose proof (fnt_prefix F 0 58 (32 :: cs) l n (q0 ++ [kt]) adj ska (skey true (tp + N.of_nat (length q0)) (mk1 nk) :: tls) fl tp ta lws (top :: ifr)) as P.
  cbn [repeat app N.of_nat] in P. rewrite N.add_0_r in P.
  rewrite P by (try reflexivity; try assumption; lia).
  etransitivity; [apply tail_colon; [exact Hfl | left; reflexivity]|].
  apply (value_step F (32 :: cs) (Nat.max l 4) (mk1 n) q0 kt adj ska (mk1 nk) tls fl tp ta lws top ifr Hfl).
  intros Hi. apply N.ltb_ge, Hlim, Hi.
Qed.

(* no arm of the dispatcher lists a character of a word *)
Lemma wch_plain c nc fl adj : wch c = true -> Dispatch.dispatch c nc fl adj = Dispatch.DPlain.
Proof.
  intros Hc. apply DispatchTie.dispatch_default. intros Hin. cbn [In] in Hin.
  repeat (destruct Hin as [<-|Hin]; [discriminate Hc|]). exact Hin.
Qed.

Lemma tail_word F c cs l mk q adj ska sks fl tp ta lws ifms : wch c = true ->
  fnt_tail F (mkst (c :: cs) l mk q adj ska sks fl tp ta lws ifms) = fetch_plain_scalar str_ops F (mkst (c :: cs) l mk q adj ska sks fl tp ta lws ifms).
Proof.
  intros Hc. unfold fnt_tail, disp, mkst. cbn -[DispatchTie.dispatch_tail]. rewrite col_not_lt_indent. cbn -[DispatchTie.dispatch_tail].
  rewrite DispatchTie.tbl_dispatch, (wch_plain c _ _ _ Hc). reflexivity.
Qed.

Lemma fnt_word F k c w x rest l n q adj ska p tn m tls fl tp ta lws ifms :
  forallb wch (c :: w) = true -> stopc x rest -> 0 < fl -> 0 < n -> (k < F)%nat -> (2 * length w + 3 <= F)%nat ->
  exists l',
  fetch_next_token str_ops F (mkst (repeat 32 k ++ c :: w ++ x :: rest) l (mk1 n) q adj ska (skey p tn m :: tls) fl tp ta lws ifms)
  = Ok (tt, mkst (x :: rest) l' (mk1 (n + N.of_nat k + N.of_nat (length (c :: w))))
              (q ++ [(spn (mk1 (n + N.of_nat k)) (mk1 (n + N.of_nat k + N.of_nat (length (c :: w)))), TScalar Plain (c :: w))]) adj false
              ((if ska then skey true (tp + N.of_nat (length q)) (mk1 (n + N.of_nat k)) else skey p tn m) :: tls) fl tp ta false ifms).
Proof.
  intros Hw Hx Hfl Hn Hk HF.
  pose proof Hw as Hw'. cbn [forallb] in Hw'. apply andb_prop in Hw' as [Hc _].
  destruct (wch_facts c Hc) as (Hb & Hfw & H58 & H35 & _).
  destruct (word_step F c w x rest (Nat.max l 4) (n + N.of_nat k) q adj ska p tn m tls fl tp ta lws ifms Hw Hx Hfl (pos_ne0 n k Hn) HF) as (l' & E).
  exists l'. rewrite fnt_prefix by assumption. rewrite tail_word by exact Hc. exact E.
Qed.

(* fetch_more_tokens: runs of fetches while a simple key is pending at the head of the queue *)
Definition need_comp : @M strin bool :=
  s <- get ;;
  match sc_tokens s return @M strin bool with
  | [] => ret true
  | _ => stale_simple_keys ;;;
         s <- get ;;
         ret (existsb (fun k => sk_possible k && (sk_token_number k =? sc_tokens_parsed s)) (sc_sks s))
  end.
#[local] Arguments need_comp : simpl never.

Lemma fmt_S F fuel :
  fetch_more_tokens str_ops F (S fuel) =
  (need <- need_comp ;; if need then fetch_next_token str_ops F ;;; fetch_more_tokens str_ops F fuel else modify (set_ta true)).
Proof. reflexivity. Qed.

Definition needy (tp : N) (sks : list simple_key) : Prop :=
  existsb (fun k => sk_possible k && (sk_token_number k =? tp)) sks = true.
Lemma needy_cons tp k sks : needy tp sks -> needy tp (k :: sks).
Proof. unfold needy. cbn [existsb]. intros ->. apply orb_true_r. Qed.

Lemma busy_flow cs l mk q adj ska sks fl tp ta lws ifms : q <> [] -> 0 < fl -> needy tp sks ->
  need_comp (mkst cs l mk q adj ska sks fl tp ta lws ifms) = Ok (true, mkst cs l mk q adj ska sks fl tp ta lws ifms).
Proof.
  intros Hq Hfl Hn. unfold need_comp. destruct q as [|t q]; [congruence|].
  unfold mkst. cbn. rewrite stale_calm by (left; exact Hfl). cbn. unfold needy in Hn. rewrite Hn. reflexivity.
Qed.

Inductive fsteps (F : nat) : nat -> sc strin -> sc strin -> Prop :=
| fs_nil s : fsteps F 0 s s
| fs_cons k s s1 s2 :
    need_comp s = Ok (true, s) -> fetch_next_token str_ops F s = Ok (tt, s1) -> fsteps F k s1 s2 -> fsteps F (S k) s s2.

Lemma fsteps_app F a s s1 : fsteps F a s s1 -> forall b s2, fsteps F b s1 s2 -> fsteps F (a + b) s s2.
Proof. induction 1; intros; cbn; [assumption|]. econstructor; eauto. Qed.

Lemma fsteps_one F s s1 : need_comp s = Ok (true, s) -> fetch_next_token str_ops F s = Ok (tt, s1) -> fsteps F 1 s s1.
Proof. intros. econstructor; eauto. constructor. Qed.

Lemma fsteps_fmt F k s s' : fsteps F k s s' ->
  forall fuel, fetch_more_tokens str_ops F (k + fuel) s = fetch_more_tokens str_ops F fuel s'.
Proof.
  induction 1 as [|k s s1 s2 Hn Hf _ IH]; intros fuel; [reflexivity|].
  cbn [plus]. rewrite fmt_S. cbn. rewrite Hn. cbn. rewrite Hf. apply IH.
Qed.

(* the text grammar against the token grammar: entries of '[ ]' and '{ }' uniformly *)
Definition entry : Type := (option str * fnode)%type.
Definition rentry (e : entry) : str := match fst e with Some k => k ++ colon_sp | None => [] end ++ render (snd e).
Definition ewf (e : entry) : bool := match fst e with Some k => word_ok k | None => true end && fwf (snd e).
Definition of_pair (p : str * fnode) : entry := (Some (fst p), snd p).
(* the key of a single pair of a flow sequence is short (YAML 1.2.2 7.4.2; /repo 57aa316) *)
Definition klim (seq : bool) (e : entry) : Prop :=
  seq = true -> forall k, fst e = Some k -> N.of_nat (length k) <= SIMPLE_KEY_MAX.

Definition top0 (seq : bool) : ims := if seq then ImPossible else ImMapping.
Definition etop (seq : bool) (e : entry) : ims :=
  if seq then match fst e with Some _ => ImInside | None => ImPossible end else ImMapping.
Definition fmek (top : ims) : list tok := match top with ImInside => [TFlowMappingEnd] | _ => [] end.
(* the tokens of an entry as the scanner queues them while it reads the entry: the FlowMappingEnd of a single pair comes with
   the next ',' or ']' *)
Definition etk' (seq : bool) (e : entry) : list tok :=
  match fst e with
  | Some k => (if seq then [TFlowMappingStart] else []) ++ [TKey; TScalar Plain k; TValue]
  | None => []
  end ++ tokens_of (lt (snd e)).
Definition etk (seq : bool) (e : entry) : list tok := etk' seq e ++ fmek (etop seq e).
Fixpoint tail_toks (seq : bool) (top : ims) (es : list entry) : list tok :=
  fmek top ++ match es with
              | [] => [close_tok seq]
              | e :: r => TFlowEntry :: etk' seq e ++ tail_toks seq (etop seq e) r
              end.

Lemma tail_toks_spec seq r : forall e,
  etk' seq e ++ tail_toks seq (etop seq e) r = fsep (map (etk seq) (e :: r)) ++ [close_tok seq].
Proof.
  induction r as [|e2 r IH]; intros e; cbn [tail_toks map fsep flat_map].
  - unfold etk. rewrite app_nil_r, <- app_assoc. reflexivity.
  - rewrite IH. cbn [map fsep flat_map]. change (etk seq e) with (etk' seq e ++ fmek (etop seq e)).
    rewrite <- !app_assoc. reflexivity.
Qed.

Lemma render_FS es : render (FS es) = open_char true :: joinc (map rentry es) ++ [close_char true].
Proof. reflexivity. Qed.
Lemma render_FM ps : render (FM ps) = open_char false :: joinc (map rentry (map of_pair ps)) ++ [close_char false].
Proof. cbn [render open_char close_char]. rewrite map_map. reflexivity. Qed.

Lemma props_none : props_toks no_props = [].
Proof. reflexivity. Qed.

Lemma tokens_FS es : tokens_of (lt (FS es)) = open_tok true :: fsep (map (etk true) es) ++ [close_tok true].
Proof.
  cbn [lt tokens_of]. rewrite props_none. cbn [app flag open_tok close_tok]. f_equal. f_equal. f_equal.
  rewrite map_map. apply map_ext. intros [[k|] v]; unfold etk, etk', etop; cbn [fst snd fsent_toks tokens_of lword].
  - cbn. rewrite ?app_nil_r. rewrite <- ?app_assoc. reflexivity.
  - cbn [fmek app]. rewrite app_nil_r. reflexivity.
Qed.

Lemma tokens_FM ps : tokens_of (lt (FM ps)) = open_tok false :: fsep (map (etk false) (map of_pair ps)) ++ [close_tok false].
Proof.
  cbn [lt tokens_of]. rewrite props_none. cbn [app flag open_tok close_tok]. f_equal. f_equal. f_equal.
  rewrite !map_map. apply map_ext. intros [k v]; unfold etk, etk', etop, of_pair; cbn [fst snd ent_toks tokens_of lword flag fmek].
  cbn. rewrite app_nil_r. reflexivity.
Qed.

(* "from this state the scanner fetches exactly these tokens and stands before y" *)
Definition scanned (F : nat) (chars : list N) (y : N) (rest : list N) (l : nat) (n : N) (q : list token) (adj : N) (ska : bool)
   (sks : list simple_key) (fl tp : N) (ta lws : bool) (ifms : list ims)
   (sks' : list simple_key) (fl' : N) (ifms' : list ims) (exp : list tok) : Prop :=
  exists steps l' n' adj' toks,
    fsteps F steps (mkst chars l (mk1 n) q adj ska sks fl tp ta lws ifms)
                   (mkst (y :: rest) l' (mk1 n') (q ++ toks) adj' false sks' fl' tp ta false ifms')
    /\ n <= n' /\ map snd toks = exp /\ (steps + length (y :: rest) <= length chars)%nat /\ (length toks <= 3 * steps)%nat.

Lemma scanned_one F chars y rest l n q adj ska sks fl tp ta lws ifms l' n' adj' t1 sks' fl' ifms' :
  need_comp (mkst chars l (mk1 n) q adj ska sks fl tp ta lws ifms) = Ok (true, mkst chars l (mk1 n) q adj ska sks fl tp ta lws ifms) ->
  fetch_next_token str_ops F (mkst chars l (mk1 n) q adj ska sks fl tp ta lws ifms)
  = Ok (tt, mkst (y :: rest) l' (mk1 n') (q ++ t1) adj' false sks' fl' tp ta false ifms') ->
  n <= n' -> (1 + length (y :: rest) <= length chars)%nat -> (length t1 <= 3)%nat ->
  scanned F chars y rest l n q adj ska sks fl tp ta lws ifms sks' fl' ifms' (map snd t1).
Proof.
  intros Hb Hf Hn Hl Ht. exists 1%nat, l', n', adj', t1. split; [eapply fsteps_one; eauto|]. repeat split; auto; lia.
Qed.

Lemma scanned_cons F chars y rest l n q adj ska sks fl tp ta lws ifms chars1 l1 n1 adj1 t1 ska1 sks1 fl1 lws1 ifms1 sks' fl' ifms' exp :
  need_comp (mkst chars l (mk1 n) q adj ska sks fl tp ta lws ifms) = Ok (true, mkst chars l (mk1 n) q adj ska sks fl tp ta lws ifms) ->
  fetch_next_token str_ops F (mkst chars l (mk1 n) q adj ska sks fl tp ta lws ifms)
  = Ok (tt, mkst chars1 l1 (mk1 n1) (q ++ t1) adj1 ska1 sks1 fl1 tp ta lws1 ifms1) ->
  n <= n1 -> (1 + length chars1 <= length chars)%nat -> (length t1 <= 3)%nat ->
  scanned F chars1 y rest l1 n1 (q ++ t1) adj1 ska1 sks1 fl1 tp ta lws1 ifms1 sks' fl' ifms' exp ->
  scanned F chars y rest l n q adj ska sks fl tp ta lws ifms sks' fl' ifms' (map snd t1 ++ exp).
Proof.
  intros Hb Hf Hn Hl Ht (steps & l' & n' & adj' & toks & R & Hn' & Hm & Hs & Hc).
  exists (S steps), l', n', adj', (t1 ++ toks). rewrite app_assoc. split; [econstructor; eauto|].
  split; [lia|]. split; [rewrite map_app; f_equal; exact Hm|]. rewrite app_length. unfold chr in *; cbn [length] in *; lia.
Qed.

Lemma scanned_trans F chars y1 rest1 y2 rest2 l n q adj ska sks fl tp ta lws ifms sks1 fl1 ifms1 exp1 sks2 fl2 ifms2 exp2 :
  scanned F chars y1 rest1 l n q adj ska sks fl tp ta lws ifms sks1 fl1 ifms1 exp1 ->
  (forall l1 n1 adj1 toks1, n <= n1 -> map snd toks1 = exp1 ->
     scanned F (y1 :: rest1) y2 rest2 l1 n1 (q ++ toks1) adj1 false sks1 fl1 tp ta false ifms1 sks2 fl2 ifms2 exp2) ->
  scanned F chars y2 rest2 l n q adj ska sks fl tp ta lws ifms sks2 fl2 ifms2 (exp1 ++ exp2).
Proof.
  intros (s1 & l1 & n1 & adj1 & t1 & R1 & Hn1 & Hm1 & Hs1 & Hc1) H2.
  destruct (H2 l1 n1 adj1 t1 Hn1 Hm1) as (s2 & l2 & n2 & adj2 & t2 & R2 & Hn2 & Hm2 & Hs2 & Hc2).
  exists (s1 + s2)%nat, l2, n2, adj2, (t1 ++ t2). rewrite app_assoc. split; [eapply fsteps_app; eauto|].
  split; [lia|]. split; [rewrite map_app; f_equal; assumption|]. rewrite app_length. unfold chr in *; cbn [length] in *; lia.
Qed.

Lemma scanned_exp F chars y rest l n q adj ska sks fl tp ta lws ifms sks' fl' ifms' e1 e2 :
  e1 = e2 -> scanned F chars y rest l n q adj ska sks fl tp ta lws ifms sks' fl' ifms' e1 ->
  scanned F chars y rest l n q adj ska sks fl tp ta lws ifms sks' fl' ifms' e2.
Proof. intros ->. auto. Qed.

Lemma scanned_pre F a chars y rest l n q adj ska sks fl tp ta lws ifms chars1 l1 n1 adj1 t1 ska1 sks1 fl1 lws1 ifms1 sks' fl' ifms' exp :
  fsteps F a (mkst chars l (mk1 n) q adj ska sks fl tp ta lws ifms) (mkst chars1 l1 (mk1 n1) (q ++ t1) adj1 ska1 sks1 fl1 tp ta lws1 ifms1) ->
  n <= n1 -> (a + length chars1 <= length chars)%nat -> (length t1 <= 3 * a)%nat ->
  scanned F chars1 y rest l1 n1 (q ++ t1) adj1 ska1 sks1 fl1 tp ta lws1 ifms1 sks' fl' ifms' exp ->
  scanned F chars y rest l n q adj ska sks fl tp ta lws ifms sks' fl' ifms' (map snd t1 ++ exp).
Proof.
  intros R0 Hn Hl Ht (steps & l' & n' & adj' & toks & R & Hn' & Hm & Hs & Hc).
  exists (a + steps)%nat, l', n', adj', (t1 ++ toks). rewrite app_assoc. split; [eapply fsteps_app; eauto|].
  split; [lia|]. split; [rewrite map_app; f_equal; exact Hm|]. rewrite app_length. unfold chr in *; cbn [length] in *; lia.
Qed.

(* first characters *)
Lemma wch_not_ws c : wch c = true -> not_ws c.
Proof.
  intros H. destruct (wch_facts c H) as (Hb & _ & _ & H35 & _). destruct (blankz_facts c Hb) as (H32 & H9 & _).
  repeat split; assumption.
Qed.

Lemma word_first w : word_ok w = true -> exists c w', w = c :: w' /\ forallb wch (c :: w') = true.
Proof. destruct w as [|c w']; [discriminate|]. intros H. exists c, w'. split; [reflexivity|exact H]. Qed.

Lemma render_first f z : fwf f = true -> exists c cs, render f ++ z = c :: cs /\ not_ws c.
Proof.
  destruct f as [w|es|ps]; cbn [fwf render]; intros H.
  - destruct (word_first w H) as (c & w' & -> & Hw). exists c, (w' ++ z). split; [reflexivity|].
    cbn [forallb] in Hw. apply andb_prop in Hw as [Hc _]. apply wch_not_ws, Hc.
  - eexists; eexists. split; [reflexivity|]. repeat split; reflexivity.
  - eexists; eexists. split; [reflexivity|]. repeat split; reflexivity.
Qed.

Lemma entry_first e z : ewf e = true -> exists c cs, rentry e ++ z = c :: cs /\ not_ws c.
Proof.
  destruct e as [[kw|] v]; unfold ewf, rentry; cbn [fst snd]; intros H; apply andb_prop in H as [Hk Hv].
  - destruct (word_first kw Hk) as (c & w' & -> & Hw). eexists; eexists. split; [reflexivity|].
    cbn [forallb] in Hw. apply andb_prop in Hw as [Hc _]. apply wch_not_ws, Hc.
  - cbn [app]. apply render_first, Hv.
Qed.

Lemma closer_not_ws seq : not_ws (close_char seq).
Proof. destruct seq; repeat split; reflexivity. Qed.

Definition rtail (es : list entry) : str := flat_map (fun e => comma_sp ++ rentry e) es.
Lemma rtail_first seq es z : exists y' rest', rtail es ++ close_char seq :: z = y' :: rest' /\ (y' = 44 \/ y' = close_char seq).
Proof. destruct es as [|e r]; cbn; eauto. Qed.

Lemma body_first seq es z : Forall (fun e => ewf e = true) es ->
  exists c cs, joinc (map rentry es) ++ close_char seq :: z = c :: cs /\ not_ws c.
Proof.
  intros HF. destruct es as [|e r]; cbn [map joinc app].
  - eexists; eexists. split; [reflexivity|]. apply closer_not_ws.
  - inversion HF; subst. rewrite <- app_assoc. apply entry_first. assumption.
Qed.

(* the induction *)
Definition follow3 (y : N) : Prop := y = 44 \/ y = 93 \/ y = 125.
Lemma follow3_stopc y rest : follow3 y -> stopc y rest.
Proof. unfold follow3, stopc. tauto. Qed.
Lemma follow3_not_ws y : follow3 y -> not_ws y.
Proof. intros [-> | [-> | ->]]; repeat split; reflexivity. Qed.

Definition NodeScan (f : fnode) : Prop :=
  forall F k y rest l n q adj ska p tn m tls fl tp ta lws ifms,
  follow3 y -> 0 < fl -> fl + N.of_nat (depth f) <= 255 -> 0 < n -> q <> [] -> needy tp tls ->
  (2 * length (repeat 32%N k ++ render f ++ y :: rest) + 4 <= F)%nat ->
  exists nk,
  scanned F (repeat 32 k ++ render f ++ y :: rest) y rest l n q adj ska (skey p tn m :: tls) fl tp ta lws ifms
    ((if ska then skey true (tp + N.of_nat (length q)) (mk1 nk) else skey p tn m) :: tls) fl ifms (tokens_of (lt f)).

Lemma node_word w : fwf (FW w) = true -> NodeScan (FW w).
Proof.
  intros Hw F k y rest l n q adj ska p tn m tls fl tp ta lws ifms Hy Hfl _ Hn Hq Hnd HF.
  cbn [fwf] in Hw. destruct (word_first w Hw) as (c & w' & -> & Hcw).
  cbn [render app] in *. rewrite !app_length, repeat_length in HF. cbn [length] in HF. rewrite app_length in HF.
  destruct (fnt_word F k c w' y rest l n q adj ska p tn m tls fl tp ta lws ifms Hcw (follow3_stopc y rest Hy) Hfl Hn ltac:(lia) ltac:(lia))
    as (l' & E).
  exists (n + N.of_nat k).
  eapply scanned_exp; [|eapply scanned_one; [ | exact E | | | ]].
  - reflexivity.
  - apply busy_flow; [exact Hq | exact Hfl | apply needy_cons, Hnd].
  - lia.
  - unfold chr in *. rewrite !app_length, repeat_length. cbn [length]. rewrite app_length. cbn [length]. lia.
  - cbn [length]. lia.
Qed.

Lemma etop_pair seq : (if starts_ifm (top0 seq) then ImInside else top0 seq) = (if seq then ImInside else ImMapping).
Proof. destruct seq; reflexivity. Qed.
Lemma etop_node seq : top0 seq = (if seq then ImPossible else ImMapping).
Proof. reflexivity. Qed.

Lemma entry_scan seq e : ewf e = true -> klim seq e -> NodeScan (snd e) ->
  forall F y rest l n q adj p tn m rs fl tp ta lws ifr,
  (y = 44 \/ y = close_char seq) -> 0 < fl -> fl + N.of_nat (depth (snd e)) <= 255 -> 0 < n -> q <> [] -> needy tp rs ->
  (2 * length (rentry e ++ y :: rest) + 4 <= F)%nat ->
  exists p' tn' m',
  scanned F (rentry e ++ y :: rest) y rest l n q adj true (skey p tn m :: rs) fl tp ta lws (top0 seq :: ifr)
     (skey p' tn' m' :: rs) fl (etop seq e :: ifr) (etk' seq e).
Proof.
  intros Hwf Hkl HN F y rest l n q adj p tn m rs fl tp ta lws ifr Hy Hfl Hd Hn Hq Hnd HF.
  assert (Hy3 : follow3 y) by (destruct Hy as [->| ->]; [left; reflexivity | destruct seq; [right; left|right;right]; reflexivity]).
  destruct e as [[kw|] v]; unfold ewf, rentry, etop, etk' in *; cbn [fst snd] in *; apply andb_prop in Hwf as [Hk Hv].
  - (* a pair  kw: v *)
    destruct (word_first kw Hk) as (c & w' & -> & Hcw).
    assert (Echars : (((c :: w') ++ colon_sp) ++ render v) ++ y :: rest = repeat 32 0 ++ c :: w' ++ 58 :: 32 :: (repeat 32 0 ++ render v ++ y :: rest)).
    { cbn [repeat app]. rewrite <- !app_assoc. reflexivity. }
    rewrite Echars in *. clear Echars.
    assert (HL : (length (repeat 32%N 0 ++ c :: w' ++ 58%N :: 32%N :: repeat 32%N 0 ++ render v ++ y :: rest)
                  = 3 + length w' + length (render v ++ y :: rest))%nat).
    { cbn [repeat app length]. rewrite app_length. cbn [length]. lia. }
    rewrite HL in HF.
    destruct (fnt_word F 0 c w' 58 (32 :: repeat 32 0 ++ render v ++ y :: rest) l n q adj true p tn m rs fl tp ta lws (top0 seq :: ifr)
                Hcw ltac:(right; right; right; split; [reflexivity|eexists; reflexivity]) Hfl Hn ltac:(lia) ltac:(lia)) as (l1 & E1).
    set (n1 := n + N.of_nat 0 + N.of_nat (length (c :: w'))) in *.
    set (kt := (spn (mk1 (n + N.of_nat 0)) (mk1 n1), TScalar Plain (c :: w'))) in *.
    assert (Hn1 : 0 < n1) by (unfold n1; lia).
    assert (Hlim : is_ifm (top0 seq) = true -> n1 <= n + N.of_nat 0 + SIMPLE_KEY_MAX).
    { intros Hi. destruct seq; [|discriminate]. specialize (Hkl eq_refl _ eq_refl). unfold n1. lia. }
    pose proof (fnt_value F (repeat 32 0 ++ render v ++ y :: rest) l1 n1 q kt adj false (n + N.of_nat 0) rs fl tp ta false (top0 seq) ifr
                  ltac:(lia) Hfl Hn1 Hlim) as E2.
    rewrite etop_pair in E2.
    set (X := if starts_ifm (top0 seq) then [(span_empty (mk1 (n + N.of_nat 0)), TFlowMappingStart)] else []) in *.
    rewrite <- (app_assoc q) in E2.
    set (t1 := (X ++ [(span_empty (mk1 (n + N.of_nat 0)), TKey); kt]) ++ [(span_empty (mk1 n1), TValue)]) in *.
    destruct (HN F 1%nat y rest (Nat.max l1 4) (n1 + 1) (q ++ t1) adj false
                false (tp + N.of_nat (length q)) (mk1 (n + N.of_nat 0)) rs fl tp ta false ((if seq then ImInside else ImMapping) :: ifr)
                Hy3 Hfl Hd ltac:(lia) (app_ne _ _ Hq) Hnd
                ltac:(cbn [repeat app length]; lia)) as (nk & SC).
    cbn [repeat app] in SC, E2, E1 |- *.
    exists false, (tp + N.of_nat (length q)), (mk1 (n + N.of_nat 0)).
    eapply scanned_exp; [|eapply scanned_pre; [ | | | | exact SC]].
    + unfold t1, X, kt. destruct seq; cbn; rewrite <- ?app_assoc; reflexivity.
    + econstructor; [apply busy_flow; [exact Hq | exact Hfl | apply needy_cons, Hnd] | exact E1 |].
      eapply fsteps_one; [apply busy_flow; [apply app_ne, Hq | exact Hfl | apply needy_cons, Hnd] | exact E2].
    + unfold n1. lia.
    + unfold chr in *. cbn [length]. rewrite !app_length. cbn [length]. rewrite ?app_length. cbn [length]. lia.
    + unfold t1, X. destruct seq; cbn [top0 starts_ifm app length]; lia.
  - (* a node *)
    cbn [app] in *.
    destruct (HN F 0%nat y rest l n q adj true p tn m rs fl tp ta lws (top0 seq :: ifr) Hy3 Hfl Hd Hn Hq Hnd HF) as (nk & SC).
    cbn [repeat app] in SC. exists true, (tp + N.of_nat (length q)), (mk1 nk).
    rewrite <- etop_node. exact SC.
Qed.

Lemma top_ok_0 seq : top_ok seq (top0 seq).
Proof. destruct seq; cbn; auto. Qed.
Lemma top_ok_e seq e : top_ok seq (etop seq e).
Proof. destruct seq, e as [[k|] v]; cbn; auto. Qed.
Lemma after_pair_ok seq top : top_ok seq top -> after_pair top = top0 seq.
Proof. destruct seq; cbn; [intros [-> | ->]|intros ->]; reflexivity. Qed.
Lemma fme_close seq top m : top_ok seq top -> map snd (if seq then fme top m else []) = fmek top.
Proof. destruct seq; cbn; [intros [-> | ->]|intros ->]; reflexivity. Qed.
Lemma fme_comma seq top m : top_ok seq top -> map snd (fme top m) = fmek top.
Proof. destruct seq; cbn; [intros [-> | ->]|intros ->]; reflexivity. Qed.

Definition EntOK (seq : bool) (fl : N) (e : entry) : Prop :=
  ewf e = true /\ klim seq e /\ NodeScan (snd e) /\ fl + N.of_nat (depth (snd e)) <= 255.

(* the entries behind the first one, and the closing bracket *)
Lemma tail_scan seq es : forall fl, Forall (EntOK seq (fl + 1)) es ->
  forall F y rest l n q adj ska p tn m hd2 tls tp ta lws top ifr,
  not_ws y -> top_ok seq top -> 0 < n -> q <> [] -> needy tp (hd2 :: tls) ->
  (2 * length (rtail es ++ close_char seq :: y :: rest) + 4 <= F)%nat ->
  scanned F (rtail es ++ close_char seq :: y :: rest) y rest l n q adj ska (skey p tn m :: hd2 :: tls) (fl + 1) tp ta lws (top :: ifr)
     (hd2 :: tls) fl ifr (tail_toks seq top es).
Proof.
  induction es as [|e r IH]; intros fl HF F y rest l n q adj ska p tn m hd2 tls tp ta lws top ifr Hy Htop Hn Hq Hnd Hfuel.
  - cbn [rtail flat_map app tail_toks] in *.
    destruct (fnt_close F seq y rest l n q adj ska p tn m hd2 tls fl tp ta lws top ifr ltac:(cbn [length] in Hfuel; lia) Hn Hy Htop) as (adj' & E).
    rewrite <- (app_assoc q) in E.
    eapply scanned_exp; [|eapply scanned_one; [ | exact E | | | ]].
    + rewrite map_app, (fme_close seq top _ Htop). destruct seq; reflexivity.
    + apply busy_flow; [exact Hq | lia | apply needy_cons, Hnd].
    + lia.
    + cbn [length]. lia.
    + rewrite app_length. destruct seq, top; cbn [fme length]; lia.
  - inversion HF as [|? ? (Hwf & Hkl & HN & Hd) HF']; subst.
    cbn [rtail flat_map tail_toks] in *. fold (rtail r) in *.
    assert (Echars : (comma_sp ++ rentry e) ++ rtail r ++ close_char seq :: y :: rest
                     = 44 :: 32 :: (rentry e ++ rtail r ++ close_char seq :: y :: rest)).
    { reflexivity. }
    rewrite <- app_assoc in Hfuel |- *. rewrite Echars in *. clear Echars.
    destruct (entry_first e (rtail r ++ close_char seq :: y :: rest) Hwf) as (c' & cs' & Ec & Hc').
    destruct (rtail_first seq r (y :: rest)) as (y' & rest' & Ey & Hy').
    pose proof (fnt_comma F c' cs' l n q adj ska p tn m (hd2 :: tls) (fl + 1) tp ta lws top ifr
                  ltac:(cbn [length] in Hfuel; lia) ltac:(lia) Hn Hc') as E.
    rewrite <- Ec in E. rewrite <- (app_assoc q) in E. rewrite (after_pair_ok seq top Htop) in E.
    set (t1 := fme top (mk1 n) ++ [(spn (mk1 n) (mk1 (n + 1 + 1)), TFlowEntry)]) in *.
    assert (Hq1 : q ++ t1 <> []) by (apply app_ne, Hq).
    assert (Hlen : (length (rentry e ++ y' :: rest') + 2 = length (44%N :: 32%N :: rentry e ++ rtail r ++ close_char seq :: y :: rest))%nat).
    { rewrite <- Ey. cbn [length]. lia. }
    eapply scanned_exp; [|eapply scanned_cons; [ | exact E | | | | ]].
    + unfold t1. rewrite map_app, (fme_comma seq top _ Htop). cbn [map snd app]. rewrite <- app_assoc. reflexivity.
    + apply busy_flow; [exact Hq | lia | apply needy_cons, Hnd].
    + lia.
    + cbn [length]. lia.
    + unfold t1. rewrite app_length. destruct top; cbn [fme length]; lia.
    + rewrite Ey in *.
      destruct (entry_scan seq e Hwf Hkl HN F y' rest' (Nat.max (Nat.max l 4) 1) (n + 1 + 1) (q ++ t1) adj false tn m (hd2 :: tls) (fl + 1)
                  tp ta false ifr Hy' ltac:(lia) Hd ltac:(lia) Hq1 Hnd ltac:(unfold chr in *; lia)) as (p' & tn' & m' & SC).
      eapply scanned_trans; [exact SC|].
      intros l1 n1 adj1 toks1 Hn1 Hm1. rewrite <- Ey.
      apply IH; try assumption.
      * apply top_ok_e.
      * lia.
      * apply app_ne, Hq1.
      * rewrite Ey. unfold chr in *. rewrite app_length in Hlen. cbn [length] in *. lia.
Qed.

Lemma joinc_cons e r : joinc (map rentry (e :: r)) = rentry e ++ rtail r.
Proof.
  cbn [map joinc]. f_equal. unfold rtail. induction r as [|x r IH]; cbn [map flat_map]; [reflexivity|]. rewrite IH. reflexivity.
Qed.

(* everything between an opening bracket and the token behind the closing one *)
Lemma body_scan seq es : forall fl, Forall (EntOK seq (fl + 1)) es ->
  forall F y rest l n q adj hd2 tls tp ta lws ifr,
  not_ws y -> 0 < n -> q <> [] -> needy tp (hd2 :: tls) ->
  (2 * length (joinc (map rentry es) ++ close_char seq :: y :: rest) + 4 <= F)%nat ->
  scanned F (joinc (map rentry es) ++ close_char seq :: y :: rest) y rest l n q adj true (dummy_key :: hd2 :: tls) (fl + 1) tp ta lws (top0 seq :: ifr)
     (hd2 :: tls) fl ifr (fsep (map (etk seq) es) ++ [close_tok seq]).
Proof.
  intros fl HF F y rest l n q adj hd2 tls tp ta lws ifr Hy Hn Hq Hnd Hfuel.
  destruct es as [|e r].
  - pose proof (tail_scan seq [] fl HF F y rest l n q adj true false 0 mk0 hd2 tls tp ta lws (top0 seq) ifr Hy (top_ok_0 seq) Hn Hq Hnd Hfuel) as SC.
    cbn [tail_toks rtail flat_map app map joinc fsep] in *. destruct seq; exact SC.
  - inversion HF as [|? ? (Hwf & Hkl & HN & Hd) HF']; subst.
    rewrite joinc_cons in *. rewrite <- app_assoc in Hfuel |- *.
    destruct (rtail_first seq r (y :: rest)) as (y' & rest' & Ey & Hy').
    rewrite Ey in *.
    destruct (entry_scan seq e Hwf Hkl HN F y' rest' l n q adj false 0 mk0 (hd2 :: tls) (fl + 1) tp ta lws ifr Hy' ltac:(lia) Hd Hn Hq Hnd Hfuel)
      as (p' & tn' & m' & SC).
    eapply scanned_exp; [apply tail_toks_spec|].
    eapply scanned_trans; [exact SC|].
    intros l1 n1 adj1 toks1 Hn1 Hm1. rewrite <- Ey.
    apply tail_scan; try assumption.
    + apply top_ok_e.
    + lia.
    + apply app_ne, Hq.
    + rewrite Ey. unfold chr in *. rewrite app_length in Hfuel. cbn [length] in *. lia.
Qed.

Lemma depth_FS_le es e : In e es -> (depth (snd e) < depth (FS es))%nat.
Proof.
  cbn [depth]. induction es as [|x r IH]; intros H; [destruct H|]. cbn [fold_right]. destruct H as [->|H]; [lia|].
  specialize (IH H). lia.
Qed.
Lemma depth_FM_le ps p : In p ps -> (depth (snd p) < depth (FM ps))%nat.
Proof.
  cbn [depth]. induction ps as [|x r IH]; intros H; [destruct H|]. cbn [fold_right]. destruct H as [->|H]; [lia|].
  specialize (IH H). lia.
Qed.

Lemma node_coll (seq : bool) (f : fnode) (es : list entry) :
  render f = open_char seq :: joinc (map rentry es) ++ [close_char seq] ->
  tokens_of (lt f) = open_tok seq :: fsep (map (etk seq) es) ++ [close_tok seq] ->
  (1 <= depth f)%nat ->
  (forall fl, fl + N.of_nat (depth f) <= 255 -> Forall (EntOK seq (fl + 1)) es) ->
  NodeScan f.
Proof.
  intros Er Et Hd1 HF F k y rest l n q adj ska p tn m tls fl tp ta lws ifms Hy Hfl Hd Hn Hq Hnd Hfuel.
  rewrite Er, Et in *. clear Er Et.
  assert (Echars : (open_char seq :: joinc (map rentry es) ++ [close_char seq]) ++ y :: rest
                   = open_char seq :: (joinc (map rentry es) ++ close_char seq :: y :: rest)).
  { cbn [app]. rewrite <- app_assoc. reflexivity. }
  rewrite Echars in *. clear Echars.
  specialize (HF fl Hd).
  assert (Hwfs : Forall (fun e => ewf e = true) es) by (eapply Forall_impl; [|exact HF]; intros e (H & _); exact H).
  destruct (body_first seq es (y :: rest) Hwfs) as (c' & cs' & Ec & Hc').
  set (K := if ska then skey true (tp + N.of_nat (length q)) (mk1 (n + N.of_nat k)) else skey p tn m).
  assert (Hlen : (length (repeat 32%N k ++ open_char seq :: joinc (map rentry es) ++ close_char seq :: y :: rest)
                  = k + S (length (joinc (map rentry es) ++ close_char seq :: y :: rest)))%nat).
  { rewrite app_length, repeat_length. reflexivity. }
  pose proof (fnt_open F k seq c' cs' l n q adj ska (skey p tn m) tls fl tp ta lws ifms
                ltac:(unfold chr in *; lia) Hfl ltac:(lia) Hn Hc') as E.
  rewrite <- Ec in E. fold K in E.
  exists (n + N.of_nat k). fold K.
  set (t1 := [(spn (mk1 (n + N.of_nat k)) (mk1 (n + N.of_nat k + 1)), open_tok seq)]).
  eapply scanned_exp; [|eapply scanned_cons with (t1 := t1); [ | | | | | ]].
  - reflexivity.
  - apply busy_flow; [exact Hq | exact Hfl | apply needy_cons, Hnd].
  - exact E.
  - lia.
  - unfold chr in *. rewrite Hlen. lia.
  - cbn [t1 length]. lia.
  - apply body_scan; try assumption.
    + apply follow3_not_ws, Hy.
    + lia.
    + apply app_ne, Hq.
    + apply needy_cons, Hnd.
    + unfold chr in *. lia.
Qed.

Section fnode_ind2.
  Variable P : fnode -> Prop.
  Hypothesis HW : forall w, P (FW w).
  Hypothesis HS : forall es, Forall (fun e : option str * fnode => P (snd e)) es -> P (FS es).
  Hypothesis HM : forall ps, Forall (fun p : str * fnode => P (snd p)) ps -> P (FM ps).
  Fixpoint fnode_ind2 (f : fnode) : P f :=
    match f with
    | FW w => HW w
    | FS es => HS es ((fix go (l : list (option str * fnode)) : Forall (fun e => P (snd e)) l :=
                         match l with [] => Forall_nil _ | (o, n) :: r => Forall_cons (o, n) (fnode_ind2 n) (go r) end) es)
    | FM ps => HM ps ((fix go (l : list (str * fnode)) : Forall (fun p => P (snd p)) l :=
                         match l with [] => Forall_nil _ | (k, n) :: r => Forall_cons (k, n) (fnode_ind2 n) (go r) end) ps)
    end.
End fnode_ind2.

(* an entry of a well-formed '[ ]' / '{ }' *)
Lemma fs_entry_ok (e : entry) :
  (match fst e with Some k => key_ok k | None => true end && fwf (snd e)) = true ->
  ewf e = true /\ klim true e /\ fwf (snd e) = true.
Proof.
  intros H. apply andb_prop in H as [Hk Hv]. unfold ewf, klim. destruct e as [[k|] v]; cbn [fst snd] in *.
  - unfold key_ok in Hk. apply andb_prop in Hk as [Hk Hs]. rewrite Hk, Hv. repeat split; try reflexivity.
    intros _ k' [= <-]. unfold key_short, key_max in Hs. apply N.leb_le in Hs. exact Hs.
  - rewrite Hv. repeat split; try reflexivity. intros _ k' [=].
Qed.
Lemma fm_entry_ok (p : str * fnode) :
  (word_ok (fst p) && fwf (snd p)) = true -> ewf (of_pair p) = true /\ klim false (of_pair p) /\ fwf (snd p) = true.
Proof.
  intros H. split; [exact H|]. split; [intros [=]|]. apply andb_prop in H as [_ Hv]. exact Hv.
Qed.

Theorem node_scan : forall f, fwf f = true -> NodeScan f.
Proof.
  apply (fnode_ind2 (fun f => fwf f = true -> NodeScan f)).
  - intros w Hw. apply node_word, Hw.
  - intros es IH Hw. apply (node_coll true (FS es) es (render_FS es) (tokens_FS es)); [cbn [depth]; lia|].
    intros fl Hd. rewrite Forall_forall in *. intros e He.
    cbn [fwf] in Hw. rewrite forallb_forall in Hw. specialize (Hw e He). destruct (fs_entry_ok e Hw) as (H1 & H2 & Hv).
    pose proof (depth_FS_le es e He) as Hlt.
    split; [exact H1|]. split; [exact H2|]. split; [|lia].
    apply IH; [exact He|exact Hv].
  - intros ps IH Hw. apply (node_coll false (FM ps) (map of_pair ps) (render_FM ps) (tokens_FM ps)); [cbn [depth]; lia|].
    intros fl Hd. rewrite Forall_forall in *. intros e He. apply in_map_iff in He as (p & <- & Hp).
    cbn [fwf] in Hw. rewrite forallb_forall in Hw. specialize (Hw p Hp). destruct (fm_entry_ok p Hw) as (H1 & H2 & Hv).
    pose proof (depth_FM_le ps p Hp) as Hlt.
    split; [exact H1|]. split; [exact H2|]. split; [|unfold of_pair; cbn [snd]; lia].
    apply IH; [exact Hp|exact Hv].
Qed.

(* the top level: stream start, the root collection at column 0, the line break, stream end *)
Definition root_key : simple_key := skey true 1 (mk1 0).

Lemma first_token F chars : (2 <= F)%nat ->
  next_token str_ops F (init_sc {| si_chars := chars; si_look := 0 |})
  = Ok (Some (span_empty (mk1 0), TStreamStart), mkst chars 1 (mk1 0) [] 0 true [dummy_key] 0 1 false true []).
Proof. exact (FlowSkeleton.first_token F chars). Qed.

Lemma first_open F (seq : bool) c' cs : (1 <= F)%nat -> not_ws c' ->
  fetch_next_token str_ops F (mkst (open_char seq :: c' :: cs) 1 (mk1 0) [] 0 true [dummy_key] 0 1 false true [])
  = Ok (tt, mkst (c' :: cs) 4 (mk1 1) [(spn (mk1 0) (mk1 1), open_tok seq)] 0 true [dummy_key; root_key] 1 1 false false [top0 seq]).
Proof.
  intros HF Hws.
  assert (Hb : is_blank_or_breakz (open_char seq) = false) by (destruct seq; reflexivity).
  assert (H35 : (open_char seq =? 35) = false) by (destruct seq; reflexivity).
  etransitivity.
  { apply (fnt_skip F _ 1 (mk1 0) [] 0 true [dummy_key] 0 1 false true [] (open_char seq :: c' :: cs) 1 (mk1 0) true true).
    - exact (skip_spaces 0 F (c' :: cs) 1 0 [] 0 true [dummy_key] 0 1 false true [] (open_char seq) ltac:(lia) Hb H35).
    - right. repeat constructor.
    - destruct seq; reflexivity.
    - right. destruct seq; repeat split; reflexivity. }
  etransitivity; [apply tail_open|].
  apply (open_step F 4 (mk1 0) [] 0 1 false seq (open_char seq) (c' :: cs) true dummy_key [] 0 true [] (false, false)); [reflexivity|].
  etransitivity; [apply (ws_none F _ c' cs); [reflexivity | exact Hws | exact HF] | reflexivity].
Qed.

Lemma ltb_max2 a : Nat.leb (Nat.max a 2) 1 = false.
Proof. apply Nat.leb_gt. lia. Qed.

(* the line break behind the root collection, then the end of input *)
Lemma skip_nl_eof F l N q adj ska sks tp ta lws ifms : (2 <= F)%nat ->
  skip_to_next_token str_ops F (mkst [10] l (mk1 N) q adj ska sks 0 tp ta lws ifms)
  = Ok (tt, mkst [] (Nat.max (Nat.max (Nat.max l 1) 2) 1) (nlm (mk1 N)) q adj true sks 0 tp ta true ifms).
Proof.
  intros HF. destruct F as [|[|F]]; [lia|lia|].
  unfold skip_to_next_token, mkst. cbn. unfold skip_linebreak, next_2_are, assert_buflen. cbn. rewrite ltb_max2. cbn. reflexivity.
Qed.

(* handing out the queued tokens *)
Definition idle_key : simple_key := skey false 1 (mk1 0).

Lemma drain F ts : forall r cs l mk adj ska fl tp ta lws ifms acc fuel,
  (1 <= F)%nat -> Forall (fun t => snd t <> TStreamEnd) ts ->
  scan_all str_ops F (length ts + fuel) (mkst cs l mk (ts ++ r) adj ska [idle_key] fl tp ta lws ifms) acc
  = scan_all str_ops F fuel (mkst cs l mk r adj ska [idle_key] fl (tp + N.of_nat (length ts))
                               (match ts with [] => ta | _ => false end) lws ifms) (rev ts ++ acc).
Proof.
  intros r cs l mk adj ska fl tp ta lws ifms acc fuel HF Hts.
  apply (FlowSkeleton.drain F ts (mkst cs l mk (ts ++ r) adj ska [idle_key] fl tp ta lws ifms) r acc fuel HF Hts);
    [reflexivity | reflexivity | repeat constructor].
Qed.

Lemma need_empty cs l mk adj ska sks fl tp ta lws ifms :
  need_comp (mkst cs l mk [] adj ska sks fl tp ta lws ifms) = Ok (true, mkst cs l mk [] adj ska sks fl tp ta lws ifms).
Proof. reflexivity. Qed.

Lemma fmt_fetch F fuel s s1 : need_comp s = Ok (true, s) -> fetch_next_token str_ops F s = Ok (tt, s1) ->
  fetch_more_tokens str_ops F (S fuel) s = fetch_more_tokens str_ops F fuel s1.
Proof. intros Hn Hf. rewrite fmt_S. cbn. rewrite Hn. cbn. rewrite Hf. reflexivity. Qed.

(* no token of the sub-language is StreamEnd *)
Lemma not_se_tokens : forall f, forallb not_se (tokens_of (lt f)) = true.
Proof.
  apply fnode_ind2.
  - intros w. reflexivity.
  - intros es IH. rewrite tokens_FS. cbn [forallb open_tok not_se andb]. rewrite forallb_app, forallb_fsep, forallb_map by reflexivity.
    cbn [forallb close_tok not_se]. rewrite andb_true_r. apply forallb_forall. intros e He. rewrite Forall_forall in IH. specialize (IH e He).
    unfold etk, etk', etop. rewrite !forallb_app. rewrite IH. destruct e as [[k|] v]; reflexivity.
  - intros ps IH. rewrite tokens_FM. cbn [forallb open_tok not_se andb]. rewrite forallb_app, forallb_fsep, !forallb_map by reflexivity.
    cbn [forallb close_tok not_se]. rewrite andb_true_r. apply forallb_forall. intros p Hp. rewrite Forall_forall in IH. specialize (IH p Hp).
    unfold etk, etk', etop, of_pair. cbn [fst snd]. rewrite !forallb_app. rewrite IH. reflexivity.
Qed.

(* the whole scanner on a document of the sub-language *)
Lemma scan_root (seq : bool) (f : fnode) (es : list entry) :
  render f = open_char seq :: joinc (map rentry es) ++ [close_char seq] ->
  tokens_of (lt f) = open_tok seq :: fsep (map (etk seq) es) ++ [close_tok seq] ->
  Forall (EntOK seq (0 + 1)) es ->
  exists toks, scan_str (doc_text f) = (toks, SEnded) /\ map snd toks = wrap false false (tokens_of (lt f)).
Proof.
  intros Er Et HF.
  assert (Hwfs : Forall (fun e => ewf e = true) es) by (eapply Forall_impl; [|exact HF]; intros e (H & _); exact H).
  destruct (body_first seq es [10] Hwfs) as (c' & cs' & Ec & Hc').
  unfold scan_str, doc_text.
  assert (Etext : render f ++ [10] = open_char seq :: c' :: cs').
  { rewrite Er, <- Ec. cbn [app]. rewrite <- app_assoc. reflexivity. }
  rewrite Etext. remember (2 * length (open_char seq :: c' :: cs') + 10)%nat as F eqn:HFlen.
  change (length (open_char seq :: c' :: cs')) with (1 + length (c' :: cs'))%nat in HFlen.
  set (ot := (spn (mk1 0) (mk1 1), open_tok seq)).
  destruct (body_scan seq es 0 HF F 10 [] 4 1 [ot] 0 root_key [] 1 false false []
              ltac:(repeat split; reflexivity) ltac:(lia) ltac:(discriminate) ltac:(reflexivity)
              ltac:(rewrite Ec; unfold chr in *; cbn [length] in *; lia))
    as (steps & l' & n' & adj' & toks & R & Hn' & Hm & Hs & Hc).
  rewrite Ec in R, Hs.
  set (q := [ot] ++ toks) in *.
  assert (Hmq : map snd q = tokens_of (lt f)) by (unfold q; rewrite map_app, Hm, Et; reflexivity).
  assert (Hq_se : Forall (fun t => snd t <> TStreamEnd) q) by (eapply no_se_spanned; [exact Hmq | apply not_se_tokens]).
  assert (Hqlen : (length q <= 1 + 3 * steps)%nat) by (unfold q; rewrite app_length; unfold token in *; cbn [length]; lia).
  destruct (scan_doc_end F (open_char seq :: c' :: cs') (S steps) q [10] l' (mk1 n') adj' false (mk1 0) false) as (sp & Es).
  - intros fuel. cbn [plus].
    rewrite (fmt_fetch F _ _ _ (need_empty _ 1 (mk1 0) 0 true [dummy_key] 0 1 false true []) (first_open F seq c' cs' ltac:(lia) Hc')).
    exact (fsteps_fmt F steps _ _ R fuel).
  - intros q0 p tp. eexists _, (nlm (mk1 n')), true, true.
    exact (skip_nl_eof F (Nat.max l' 1) n' q0 adj' false [skey p 1 (mk1 0)] tp false false [] ltac:(lia)).
  - discriminate.
  - exact Hq_se.
  - unfold chr in *. cbn [length] in Hs, HFlen. lia.
  - unfold token in *. lia.
  - exists ((span_empty (mk1 0), TStreamStart) :: q ++ [(sp, TStreamEnd)]). split; [exact Es|].
    cbn [map snd]. rewrite map_app, Hmq. reflexivity.
Qed.

Lemma entok_root seq fl es :
  (forall e, In e es -> ewf e = true /\ klim seq e /\ fl + N.of_nat (depth (snd e)) <= 255) -> Forall (EntOK seq fl) es.
Proof.
  intros H. apply Forall_forall. intros e He. destruct (H e He) as (Hw & Hk & Hd). split; [exact Hw|]. split; [exact Hk|]. split; [|exact Hd].
  apply node_scan. unfold ewf in Hw. apply andb_prop in Hw as [_ Hv]. exact Hv.
Qed.

Theorem scan_flow f : fwf f = true -> is_coll f = true -> (depth f <= 255)%nat ->
  exists toks, scan_str (doc_text f) = (toks, SEnded) /\ map snd toks = wrap false false (tokens_of (lt f)).
Proof.
  intros Hw Hc Hd. destruct f as [w|es|ps]; [discriminate| |].
  - apply (scan_root true (FS es) es (render_FS es) (tokens_FS es)). apply entok_root. intros e He.
    cbn [fwf] in Hw. rewrite forallb_forall in Hw. destruct (fs_entry_ok e (Hw e He)) as (H1 & H2 & _).
    split; [exact H1|]. split; [exact H2|].
    pose proof (depth_FS_le es e He). lia.
  - apply (scan_root false (FM ps) (map of_pair ps) (render_FM ps) (tokens_FM ps)). apply entok_root. intros e He.
    apply in_map_iff in He as (p & <- & Hp). cbn [fwf] in Hw. rewrite forallb_forall in Hw.
    destruct (fm_entry_ok p (Hw p Hp)) as (H1 & H2 & _). split; [exact H1|]. split; [exact H2|].
    pose proof (depth_FM_le ps p Hp). unfold of_pair. cbn [snd]. lia.
Qed.

(* the key limit is sharp: an over-long key of a flow-sequence single pair is an error at its ':' *)
Lemma fmt_err F fuel s e m : need_comp s = Ok (true, s) -> fetch_next_token str_ops F s = Err e m ->
  fetch_more_tokens str_ops F (S fuel) s = Err e m.
Proof. intros Hn Hf. rewrite fmt_S. cbn. rewrite Hn. cbn. rewrite Hf. reflexivity. Qed.

Lemma next_token_err F (s : sc strin) e m :
  sc_stream_end s = false -> sc_token_available s = false ->
  fetch_more_tokens str_ops F F s = Err e m -> next_token str_ops F s = Err e m.
Proof. intros H1 H2 H3. unfold next_token. cbn. rewrite H1. cbn. rewrite H2. cbn. rewrite H3. reflexivity. Qed.

Theorem scan_long_key k v es : word_ok k = true -> key_short k = false ->
  scan_str (doc_text (FS ((Some k, v) :: es)))
  = ([(span_empty (mk1 0), TStreamStart)], SError 98 (mk1 (1 + N.of_nat (length k)))).
Proof.
  intros Hk Hlong. destruct (word_first k Hk) as (c & w' & -> & Hcw).
  unfold key_short, key_max in Hlong. apply N.leb_gt in Hlong.
  unfold scan_str, doc_text.
  match goal with |- context [{| si_chars := ?t; si_look := _ |}] =>
    assert (Etext : exists cs, t = open_char true :: c :: w' ++ 58 :: 32 :: cs) end.
  { cbn [render map fst snd joinc open_char]. eexists. cbn [app colon_sp]. rewrite <- !app_assoc. cbn [app]. reflexivity. }
  destruct Etext as (cs & ->).
  remember (2 * length (open_char true :: c :: w' ++ 58%N :: 32%N :: cs) + 10)%nat as F eqn:HFlen.
  assert (HF : (2 * length w' + 16 <= F)%nat) by (rewrite HFlen; cbn [length]; rewrite app_length; cbn [length]; lia).
  assert (Hc : wch c = true) by (cbn [forallb] in Hcw; apply andb_prop in Hcw as [H _]; exact H).
  set (ot := (spn (mk1 0) (mk1 1), open_tok true)).
  destruct (fnt_word F 0 c w' 58 (32 :: cs) 4 1 [ot] 0 true false 0 mk0 [root_key] 1 1 false false [top0 true]
              Hcw ltac:(right; right; right; split; [reflexivity|eexists; reflexivity]) ltac:(lia) ltac:(lia) ltac:(lia) ltac:(lia)) as (l1 & E1).
  set (n1 := 1 + N.of_nat 0 + N.of_nat (length (c :: w'))) in *.
  set (kt := (spn (mk1 (1 + N.of_nat 0)) (mk1 n1), TScalar Plain (c :: w'))) in *.
  set (S1 := mkst (open_char true :: c :: w' ++ 58 :: 32 :: cs) 1 (mk1 0) [] 0 true [dummy_key] 0 1 false true []).
  assert (Hfmt : fetch_more_tokens str_ops F F S1 = Err 98 (mk1 n1)).
  { destruct F as [|[|[|F3]]]; [lia|lia|lia|]. unfold S1.
    erewrite fmt_fetch; [ | apply need_empty | apply first_open; [lia | exact (wch_not_ws c Hc)]].
    erewrite fmt_fetch; [ | | exact E1].
    2:{ apply busy_flow; [discriminate | lia | reflexivity]. }
    apply fmt_err; [apply busy_flow; [discriminate | lia | reflexivity]|].
    pose proof (fnt_prefix (S (S (S F3))) 0 58 (32 :: cs) l1 n1 ([ot] ++ [kt]) 0 false
                  [skey true (1 + N.of_nat (length [ot])) (mk1 (1 + N.of_nat 0)); root_key] 1 1 false false [top0 true]
                  ltac:(lia) eq_refl eq_refl ltac:(lia) ltac:(unfold n1; lia)) as P.
    etransitivity; [exact P|]. clear P.
    etransitivity; [apply tail_colon; [lia | left; reflexivity]|].
    replace (mk1 n1) with (mk1 (n1 + N.of_nat 0)) by (f_equal; lia).
    apply (value_long (S (S (S F3))) (32 :: cs) (Nat.max l1 4) (mk1 (n1 + N.of_nat 0)) [ot] kt 0 false (mk1 (1 + N.of_nat 0)) [root_key] 1 1 false false (top0 true) []);
      [lia | reflexivity | apply orb_true_iff; right; apply N.ltb_lt; unfold n1, SIMPLE_KEY_MAX; cbn [length m_index mk1] in Hlong |- *; lia]. }
  assert (Hnt : next_token str_ops F S1 = Err 98 (mk1 n1)).
  { apply next_token_err; [reflexivity | reflexivity | exact Hfmt]. }
  assert (Htot : exists rest, (4 * F + 20 = S (S rest))%nat) by (exists (4 * F + 18)%nat; lia).
  destruct Htot as (rest & ->).
  rewrite scan_all_S, (first_token F (open_char true :: c :: w' ++ 58 :: 32 :: cs)) by lia. cbv beta iota. fold S1.
  rewrite scan_all_S, Hnt. cbn [rev app]. replace n1 with (1 + N.of_nat (length (c :: w'))) by (unfold n1; lia). reflexivity.
Qed.

(* text -> events: the scanner theorem composed with the parser theorem *)
Require Import TokenGrammarProofs TokenStreamProofs.
Require DocRun.

Lemma lt_wf : forall f b i, wf b i (lt f) = true.
Proof.
  apply (fnode_ind2 (fun f => forall b i, wf b i (lt f) = true)).
  - intros w b i. reflexivity.
  - intros es IH b i. cbn [lt wf]. rewrite andb_true_r. rewrite forallb_map. apply forallb_forall. intros e He.
    rewrite Forall_forall in IH. specialize (IH e He). destruct e as [[k|] v]; cbn [fst snd fsent_wf wf forallb fment_wf lword is_none orb andb].
    + rewrite IH, !orb_true_r. reflexivity.
    + apply IH.
  - intros ps IH b i. cbn [lt wf]. rewrite andb_true_r. rewrite forallb_map. apply forallb_forall. intros p Hp.
    rewrite Forall_forall in IH. specialize (IH p Hp). cbn [fment_wf lword is_none wf orb andb]. rewrite IH, !orb_true_r. reflexivity.
Qed.

Definition plain_pev (x : pev) : bool :=
  match x with
  | PScalar _ _ None None | PSeqStart None None | PMapStart None None | PSeqEnd | PMapEnd => true
  | _ => false
  end.
Lemma bound_plain l : forallb plain_pev l = true -> forall e, bound [] e l = true.
Proof.
  induction l as [|x l IH]; intros H e; cbn [bound]; [reflexivity|]. cbn [forallb] in H. apply andb_prop in H as [Hx Hl].
  destruct x as [v st [a|] [tg|] | n | [a|] [tg|] | | [a|] [tg|] | ]; try discriminate; cbn; apply IH; exact Hl.
Qed.
Lemma lt_plain : forall f, forallb plain_pev (pre_events (lt f)) = true.
Proof.
  apply fnode_ind2.
  - intros w. reflexivity.
  - intros es IH. cbn [lt pre_events forallb plain_pev no_props pr_anchor pr_tag andb]. rewrite forallb_app. cbn [forallb plain_pev]. rewrite andb_true_r.
    rewrite forallb_flat_map, forallb_map. apply forallb_forall. intros e He. rewrite Forall_forall in IH. specialize (IH e He).
    destruct e as [[k|] v]; cbn [fst snd fsent_pre pre_events flat_map ent_pre lword no_props pr_anchor pr_tag app forallb plain_pev andb] in *.
    + rewrite app_nil_r, forallb_app. cbn [forallb plain_pev]. rewrite IH. reflexivity.
    + exact IH.
  - intros ps IH. cbn [lt pre_events forallb plain_pev no_props pr_anchor pr_tag andb]. rewrite forallb_app. cbn [forallb plain_pev]. rewrite andb_true_r.
    rewrite forallb_flat_map, forallb_map. apply forallb_forall. intros p Hp. rewrite Forall_forall in IH. specialize (IH p Hp).
    cbn [ent_pre pre_events lword no_props pr_anchor pr_tag app forallb plain_pev andb]. exact IH.
Qed.

Lemma joinc_length (l : list str) : (length (concat l) <= length (joinc l))%nat.
Proof.
  destruct l as [|x r]; cbn [joinc concat length]; [lia|]. rewrite !app_length.
  enough (length (concat r) <= length (flat_map (fun y => comma_sp ++ y) r))%nat by lia.
  induction r as [|y r IH]; cbn [concat flat_map length]; [lia|]. rewrite !app_length. lia.
Qed.
Lemma flat_map_le_text {A} (f : A -> list pev) (g : A -> str) l :
  Forall (fun x => (length (f x) <= length (g x))%nat) l -> (length (flat_map f l) <= length (concat (map g l)))%nat.
Proof. induction 1 as [|x l Hx _ IH]; cbn [flat_map map concat length]; [lia|]. rewrite !app_length. lia. Qed.

(* at most one event per character *)
Lemma events_le_text : forall f, fwf f = true -> (length (pre_events (lt f)) <= length (render f))%nat.
Proof.
  apply (fnode_ind2 (fun f => fwf f = true -> (length (pre_events (lt f)) <= length (render f))%nat)).
  - intros w Hw. cbn [fwf] in Hw. destruct w; [discriminate|]. cbn. lia.
  - intros es IH Hw. cbn [lt pre_events render length]. rewrite !app_length. cbn [length].
    pose proof (joinc_length (map (fun e : option str * fnode => match fst e with Some k => k ++ colon_sp | None => [] end ++ render (snd e)) es)) as HJ.
    enough (length (flat_map (fsent_pre pre_events)
                      (map (fun e : option str * fnode => match fst e with
                                     | Some k => inl (LFMap no_props [(true, lword k, (true, lt (snd e)))] false)
                                     | None => inl (lt (snd e)) end) es))
            <= length (concat (map (fun e : option str * fnode => match fst e with Some k => k ++ colon_sp | None => [] end ++ render (snd e)) es)))%nat by (unfold str in *; lia).
    rewrite flat_map_concat_map, map_map, <- flat_map_concat_map. apply flat_map_le_text.
    rewrite Forall_forall in *. intros e He. cbn [fwf] in Hw. rewrite forallb_forall in Hw. specialize (Hw e He). apply andb_prop in Hw as [Hk Hv].
    specialize (IH e He Hv). destruct e as [[k|] v]; cbn [fst snd fsent_pre pre_events flat_map ent_pre lword app length] in *.
    + destruct k; [discriminate|]. rewrite !app_length. cbn [length colon_sp]. rewrite ?app_length. cbn [length]. lia.
    + exact IH.
  - intros ps IH Hw. cbn [lt pre_events render length]. rewrite !app_length. cbn [length].
    pose proof (joinc_length (map (fun p : str * fnode => (fst p ++ colon_sp) ++ render (snd p)) ps)) as HJ.
    enough (length (flat_map (ent_pre pre_events) (map (fun p : str * fnode => (true, lword (fst p), (true, lt (snd p)))) ps))
            <= length (concat (map (fun p : str * fnode => (fst p ++ colon_sp) ++ render (snd p)) ps)))%nat by (unfold str in *; lia).
    rewrite flat_map_concat_map, map_map, <- flat_map_concat_map. apply flat_map_le_text.
    rewrite Forall_forall in *. intros p Hp. cbn [fwf] in Hw. rewrite forallb_forall in Hw. specialize (Hw p Hp). apply andb_prop in Hw as [Hk Hv].
    specialize (IH p Hp Hv). cbn [ent_pre pre_events lword app length].
    destruct (fst p); [discriminate|]. rewrite !app_length. cbn [length colon_sp]. rewrite ?app_length. cbn [length]. lia.
Qed.

(* run_str is the scanner followed by the parser with some fuel that is at least 4 * (2 * length + 10) + 20
   (stated this way so that what uses it does not depend on the exact parser fuel of Model/Pipe.v) *)
Lemma run_str_scan s : exists fuel, (4 * (2 * length s + 10) + 20 <= fuel)%nat /\
  run_str s = parse_all fuel (init_p (fst (scan_str s)) false) (snd (scan_str s)) [].
Proof. eexists. split; [|exact (DocRun.run_str_parse s)]. lia. Qed.

Theorem run_flow f : fwf f = true -> is_coll f = true -> (depth f <= 255)%nat ->
  map fst (fst (run_str (doc_text f))) = wrap_events false (events_of (lt f)) /\ snd (run_str (doc_text f)) = PDone.
Proof.
  intros Hw Hc Hd. destruct (scan_flow f Hw Hc Hd) as (toks & Es & Hm).
  destruct (run_str_scan (doc_text f)) as (fuel & Hfuel & ->). rewrite Es.
  apply (parse_wrap (lt f) false false toks false SEnded fuel); [ | | exact Hm | ].
  - unfold wf_root. destruct f; [discriminate| |]; apply lt_wf.
  - apply bound_plain, lt_plain.
  - unfold wrap_events, events_of. cbn [length]. rewrite app_length, number_length. cbn [length].
    pose proof (events_le_text f Hw). unfold doc_text in Hfuel. rewrite app_length in Hfuel. cbn [length] in Hfuel. lia.
Qed.
