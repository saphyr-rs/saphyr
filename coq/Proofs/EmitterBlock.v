(* C09 — the literal-block style of the emitter (Model/Emitter.v: is_literal_block, emit_literal_block) against the
   block-scalar specification of C05 (Spec/BlockScalar.v, written from YAML 1.2.2 chapter 8.1 and independent of the
   scanner model): for every string that passes the guard of `YamlEmitter::is_literal_block`, the text written by
   `emit_literal_block` is the rendering of a block scalar whose value — [block_value] — is the string, and the
   side conditions of the specification ([case_ok]) hold. *)
From Coq Require Import List NArith ZArith Bool Arith Lia.
Import ListNotations.
Require Import Parser Resolver Emitter EmitterProofs BlockScalar ListKit.
Open Scope N_scope.
Arguments N.eqb : simpl never.
Arguments N.leb : simpl never.
Arguments N.ltb : simpl never.

(* ---- the guards that the source must contain (Gen/EmitterTables.v is re-translated from emitter.rs on every run:
        removing a guard from `is_literal_block` breaks here) ---- *)
Lemma tbl_lit_guard_content : lit_guard_content = true.  Proof. reflexivity. Qed.
Lemma tbl_lit_guard_tail : lit_guard_tail = true.        Proof. reflexivity. Qed.
Lemma tbl_lit_guard_root : lit_guard_root = true.        Proof. reflexivity. Qed.
Lemma tbl_lit_root_tab : In 9 lit_root_bad_start.        Proof. cbn. tauto. Qed.
Lemma tbl_lit_root_markers : In [45; 45; 45] lit_root_bad_prefixes /\ In [46; 46; 46] lit_root_bad_prefixes.
Proof. cbn. tauto. Qed.

(* the model writes [chr] / [str] for N / list N: make the implicit type arguments syntactically equal before rewriting *)
Ltac nn := change Resolver.chr with N in *; change Resolver.str with (list N) in *; change Parser.str with (list N) in *.

(* small list facts *)

Lemma ends_with_ch_In (s : list N) (c : N) : ends_with_ch s c = true -> In c s.
Proof.
  unfold ends_with_ch. destruct s as [|x r]; [discriminate|]. intros H. apply N.eqb_eq in H. rewrite <- H.
  apply last_In. discriminate.
Qed.

Lemma ends_with_ch_cons (c x : N) (r : list N) : r <> [] -> ends_with_ch (x :: r) c = ends_with_ch r c.
Proof. destruct r; [congruence|]. reflexivity. Qed.

Lemma ends_with_ch_cons_ne (c x : N) (r : list N) : x <> c -> ends_with_ch (x :: r) c = ends_with_ch r c.
Proof. intros H. destruct r; [|reflexivity]. apply N.eqb_neq. exact H. Qed.

Lemma ends_with_ch_app (s : list N) (x c : N) : ends_with_ch (s ++ [x]) c = N.eqb x c.
Proof.
  unfold ends_with_ch. destruct (s ++ [x]) eqn:E; [destruct s; discriminate|]. rewrite <- E, last_last. reflexivity.
Qed.

Lemma strip_cr_id (l : list N) : ~ In 13 l -> strip_cr l = l.
Proof.
  intros H. unfold strip_cr. destruct (ends_with_ch l 13) eqn:E; [|reflexivity].
  exfalso. apply H. apply ends_with_ch_In. exact E.
Qed.

(* str::lines(), for strings without CR *)
(* the lines joined by line feeds *)
Fixpoint join_lf (ls : list (list N)) : list N :=
  match ls with
  | [] => []
  | x :: r => match r with [] => x | _ => x ++ 10 :: join_lf r end
  end.

Lemma join_lf_cons (x : list N) (r : list (list N)) : r <> [] -> join_lf (x :: r) = x ++ 10 :: join_lf r.
Proof. destruct r; [congruence|]. reflexivity. Qed.

Lemma join_lf_snoc (ls : list (list N)) : ls <> [] -> join_lf (ls ++ [[]]) = join_lf ls ++ [10].
Proof.
  induction ls as [|x r IH]; [congruence|]. intros _. destruct r as [|y r'].
  - reflexivity.
  - cbn [app] in IH |- *. rewrite (join_lf_cons x), (join_lf_cons x), IH by discriminate. rewrite <- app_assoc. reflexivity.
Qed.

Lemma lines_aux_nil (s cur : list N) : lines_aux s cur = [] -> s = [] /\ cur = [].
Proof.
  revert cur. induction s as [|c r IH]; intros cur; cbn [lines_aux].
  - destruct cur; [auto|discriminate].
  - destruct (N.eqb c 10); [discriminate|]. intros H. apply IH in H. destruct H as [_ H]. discriminate H.
Qed.

(* lines_aux with a line already begun: that line goes in front of the first line of the rest.  Hence rust_lines obeys
   the two equations rust_lines_lf and rust_lines_cons, and the facts below are inductions on the string alone *)
Definition onto (p : list N) (ls : list (list N)) : list (list N) :=
  match ls with [] => [p] | h :: t => (p ++ h) :: t end.

Lemma onto_onto (p q : list N) ls : onto p (onto q ls) = onto (p ++ q) ls.
Proof. destruct ls; cbn [onto]; rewrite <- ?app_assoc; reflexivity. Qed.

Lemma lines_aux_onto (s : list N) : forall cur : list N, cur <> [] -> ~ In 13 cur -> ~ In 13 s ->
  lines_aux s cur = onto (rev cur) (rust_lines s).
Proof.
  unfold rust_lines. induction s as [|c r IH]; intros cur Hne Hc Hs; cbn [lines_aux].
  - destruct cur; [congruence|reflexivity].
  - apply not_in_cons in Hs as [Hc13 Hr]. destruct (N.eqb c 10).
    + rewrite strip_cr_id by (rewrite <- in_rev; exact Hc). cbn [onto]. rewrite app_nil_r. reflexivity.
    + nn. rewrite (IH [c]), (IH (c :: cur)), onto_onto; try discriminate; try exact Hr.
      * reflexivity.
      * intros [X|X]; [congruence|exact (Hc X)].
      * intros [X|[]]. congruence.
Qed.

Lemma rust_lines_lf (r : list N) : rust_lines (10 :: r) = [] :: rust_lines r.
Proof. reflexivity. Qed.

Lemma rust_lines_cons (c : N) (r : list N) : c <> 10 -> ~ In 13 (c :: r) -> rust_lines (c :: r) = onto [c] (rust_lines r).
Proof.
  intros Hn Hcr. apply not_in_cons in Hcr as [Hc Hr]. unfold rust_lines at 1. cbn [lines_aux].
  destruct (N.eqb_spec c 10); [congruence|]. apply (lines_aux_onto r [c]); [discriminate| |exact Hr].
  intros [X|[]]. congruence.
Qed.

Lemma join_lf_onto (c : N) ls : join_lf (onto [c] ls) = c :: join_lf ls.
Proof. destruct ls as [|h [|h2 t]]; reflexivity. Qed.

(* the string is its lines joined by line feeds, plus the final line feed if it has one *)
Lemma rust_lines_text (v : list N) : ~ In 13 v -> v = join_lf (rust_lines v) ++ (if ends_with_ch v 10 then [10] else []).
Proof.
  induction v as [|c r IH]; intros Hcr; [reflexivity|].
  specialize (IH (proj2 (proj1 (not_in_cons _ _ _) Hcr))). destruct (N.eqb_spec c 10) as [->|Hn].
  - rewrite rust_lines_lf. destruct r as [|d r']; [reflexivity|].
    rewrite join_lf_cons by (intros X; apply lines_aux_nil in X; destruct X; discriminate).
    rewrite ends_with_ch_cons by discriminate. cbn [app]. f_equal. exact IH.
  - rewrite (rust_lines_cons c r Hn Hcr), join_lf_onto, ends_with_ch_cons_ne by exact Hn. cbn [app]. f_equal. exact IH.
Qed.

(* the characters of the lines are characters of the string, and none is a line feed *)
Lemma rust_lines_chars (v l : list N) (c : N) : ~ In 13 v -> In l (rust_lines v) -> In c l -> In c v /\ c <> 10.
Proof.
  revert l. induction v as [|x r IH]; intros l Hcr Hl Hc; [destruct Hl|].
  pose proof (fun l => IH l (proj2 (proj1 (not_in_cons _ _ _) Hcr))) as IH'. clear IH.
  assert (Hrec : forall l', In l' (rust_lines r) -> In c l' -> In c (x :: r) /\ c <> 10).
  { intros l' A B. destruct (IH' l' A B) as [D E]. split; [right; exact D|exact E]. }
  destruct (N.eqb_spec x 10) as [->|Hn].
  - rewrite rust_lines_lf in Hl. destruct Hl as [<-|Hl]; [destruct Hc|]. exact (Hrec l Hl Hc).
  - assert (Hx : c = x -> In c (x :: r) /\ c <> 10) by (intros ->; split; [left; reflexivity|exact Hn]).
    rewrite (rust_lines_cons x r Hn Hcr) in Hl. destruct (rust_lines r) as [|h t]; cbn [onto app] in Hl.
    + destruct Hl as [<-|[]]. destruct Hc as [<-|[]]. apply Hx. reflexivity.
    + destruct Hl as [<-|Hl]; [|exact (Hrec l (or_intror Hl) Hc)].
      destruct Hc as [<-|Hc]; [apply Hx; reflexivity|]. exact (Hrec h (or_introl eq_refl) Hc).
Qed.

(* what the guard of is_literal_block gives *)
(* the lines before the first non-empty one are empty, and that one does not start with a space *)
Lemma guard_leading (v : list N) : ~ In 13 v -> trim_start_lf v <> [] -> starts_with_ch (trim_start_lf v) 32 = false ->
  exists j first rest, rust_lines v = repeat [] j ++ first :: rest /\ first <> [] /\ starts_with_ch first 32 = false.
Proof.
  induction v as [|c r IH]; intros Hcr Hne Hsp; [cbn in Hne; congruence|].
  cbn [trim_start_lf] in Hne, Hsp. destruct (N.eqb_spec c 10) as [->|Hn].
  - destruct (IH (proj2 (proj1 (not_in_cons _ _ _) Hcr)) Hne Hsp) as (j & f & rest & E & A & B). exists (S j), f, rest.
    rewrite rust_lines_lf, E. split; [reflexivity|]. split; assumption.
  - rewrite (rust_lines_cons c r Hn Hcr).
    destruct (rust_lines r) as [|h t]; [exists O, [c], []|exists O, (c :: h), t]; (split; [reflexivity|split; [discriminate|exact Hsp]]).
Qed.

Lemma ends_with_2lf_app (p : list N) : ends_with_2lf (p ++ [10; 10]) = true.
Proof. unfold ends_with_2lf. rewrite rev_app_distr. reflexivity. Qed.

(* an empty last line would mean that the string ends with two line feeds, or is a single line feed *)
Lemma guard_last (v : list N) : ~ In 13 v -> trim_start_lf v <> [] -> ends_with_2lf v = false ->
  rust_lines v <> [] /\ last (rust_lines v) [] <> [].
Proof.
  intros Hcr Hne H2. assert (Hl : rust_lines v <> []).
  { intros X. apply lines_aux_nil in X. destruct X as [-> _]. apply Hne. reflexivity. }
  split; [exact Hl|]. intros X. pose proof (rust_lines_text v Hcr) as T.
  destruct (exists_last Hl) as (ls & l & E). rewrite E, last_last in X. subst l. rewrite E in T.
  destruct ls as [|l0 ls'].
  - cbn [app join_lf] in T. destruct (ends_with_ch v 10); rewrite T in Hne; apply Hne; reflexivity.
  - rewrite join_lf_snoc in T by discriminate. destruct (ends_with_ch v 10) eqn:E10.
    + rewrite T, <- app_assoc in H2. cbn [app] in H2. rewrite ends_with_2lf_app in H2. discriminate H2.
    + rewrite app_nil_r in T. rewrite T, ends_with_ch_app in E10. discriminate E10.
Qed.

(* characters of a literal block: no CR, no NUL (the generated class of is_valid_literal_block_scalar) *)
Lemma lit_char_facts (c : N) : in_ranges c literal_block_chars = true -> c <> 13 /\ c <> 0.
Proof.
  unfold in_ranges, literal_block_chars. cbn [existsb fst snd].
  rewrite !orb_true_iff, !andb_true_iff, !N.leb_le. lia.
Qed.

Lemma lit_chars_no_cr (v : list N) : is_valid_literal_block_scalar v = true -> ~ In 13 v /\ ~ In 0 v.
Proof.
  unfold is_valid_literal_block_scalar. intros H. rewrite forallb_forall in H.
  split; intros X; apply H in X; apply lit_char_facts in X; destruct X; congruence.
Qed.

Lemma is_literal_block_true m level v : is_literal_block m level v = true ->
  m = true /\ contains_ch v 10 = true /\ is_valid_literal_block_scalar v = true
  /\ trim_start_lf v <> [] /\ starts_with_ch (trim_start_lf v) 32 = false
  /\ ends_with_2lf v = false
  /\ ((level < 0)%Z -> starts_with_ch v 9 = false /\ forall l, In l (rust_lines v) -> marker_like l = false).
Proof.
  unfold is_literal_block. rewrite tbl_lit_guard_content, tbl_lit_guard_tail, tbl_lit_guard_root. cbn [andb].
  destruct (m && contains_ch v 10 && is_valid_literal_block_scalar v) eqn:B; cbn [negb]; [|discriminate].
  apply andb_true_iff in B as [B Hv]. apply andb_true_iff in B as [-> Hlf].
  destruct (is_nil (trim_start_lf v)) eqn:En; cbn [orb]; [discriminate|].
  destruct (starts_with_ch (trim_start_lf v) 32) eqn:Es; [discriminate|].
  destruct (ends_with_2lf v) eqn:E2; [discriminate|].
  intros H. split; [reflexivity|]. split; [exact Hlf|]. split; [exact Hv|].
  split; [|split; [reflexivity|split; [reflexivity|]]].
  - intros X. rewrite X in En. discriminate En.
  - intros Hlev. destruct (Z.ltb_spec level 0) as [_|Hge]; [|lia]. apply andb_true_iff in H as [Ht Hm]. split.
    + pose proof (proj1 (forallb_forall _ _) Ht _ tbl_lit_root_tab) as T. cbv beta in T. apply negb_true_iff in T. exact T.
    + apply negb_true_iff in Hm. intros l Hin. exact (existsb_false_In _ _ _ Hm Hin).
Qed.

(* the emitted lines as lines of the specification *)
(* the indentation emit_literal_block writes in front of every line *)
Definition ind_n (level : Z) : nat := length (indent (level + 1)).
Lemma indent_spaces level : indent (level + 1) = spaces (ind_n level).
Proof.
  unfold ind_n, indent, spaces, SP. destruct (level + 1 <=? 0)%Z; [reflexivity|]. rewrite repeat_length. reflexivity.
Qed.
Lemma ind_n_root level : (level < 0)%Z -> ind_n level = O.
Proof. intros H. unfold ind_n, indent. destruct (Z.leb_spec (level + 1) 0); [reflexivity|lia]. Qed.
Lemma ind_n_inner level : (0 <= level)%Z -> ind_n level = Z.to_nat (2 * (level + 1)).
Proof.
  intros H. unfold ind_n, indent. destruct (Z.leb_spec (level + 1) 0); [lia|]. rewrite repeat_length. unfold best_indent. f_equal. lia.
Qed.

Definition raw_of (l : list N) : rline := strip_spaces O l.

Lemma strip_spaces_spec (s : list N) : forall k, exists e t,
  strip_spaces k s = ((k + e)%nat, t) /\ s = spaces e ++ t /\ match t with c :: _ => (c =? 32) = false | [] => True end.
Proof.
  induction s as [|c r IH]; intros k.
  - exists O, []. cbn. rewrite Nat.add_0_r. auto.
  - cbn [strip_spaces]. destruct (c =? 32) eqn:E.
    + destruct (IH (S k)) as (e & t & A & B & C). exists (S e), t. rewrite A. split; [f_equal; lia|]. split; [|exact C].
      apply N.eqb_eq in E. subst c. cbn. f_equal. exact B.
    + exists O, (c :: r). rewrite Nat.add_0_r. auto.
Qed.

Lemma strip_spaces_app (n : nat) (s : list N) : forall k, strip_spaces k (spaces n ++ s) = strip_spaces (k + n) s.
Proof.
  induction n as [|n IH]; intros k; [rewrite Nat.add_0_r; reflexivity|].
  cbn [spaces repeat app strip_spaces]. change (SP =? 32) with true. cbv iota. fold (spaces n). rewrite IH. f_equal. lia.
Qed.

Lemma raw_line n (l : list N) : exists e t, raw_of (spaces n ++ l) = ((n + e)%nat, t) /\ l = spaces e ++ t
  /\ match t with c :: _ => (c =? 32) = false | [] => True end.
Proof. unfold raw_of. rewrite strip_spaces_app. cbn [Nat.add]. apply strip_spaces_spec. Qed.

(* a line [l] written after [n] spaces, as a line of the specification relative to the content indentation [n] *)
Definition cls (n : nat) (l : list N) : bline := classify n (raw_of (spaces n ++ l)).

Lemma raw_of_blank n : raw_of (spaces n ++ []) = (n, []).
Proof. unfold raw_of. rewrite strip_spaces_app. reflexivity. Qed.

Lemma cls_nil n : cls n [] = Blank n.
Proof. unfold cls. rewrite raw_of_blank. unfold classify. cbn [fst snd]. rewrite Nat.leb_refl. reflexivity. Qed.

Lemma cls_text n (l : list N) : l <> [] -> exists e s, cls n l = Text e s /\ line_text e s = l /\ raw_of (spaces n ++ l) = ((n + e)%nat, s).
Proof.
  intros Hne. unfold cls. destruct (raw_line n l) as (e & t & A & B & C). rewrite A. unfold classify. cbn [fst snd].
  exists e, t. replace (n + e - n)%nat with e by lia. split; [|split; [symmetry; exact B|reflexivity]].
  destruct t as [|c t']; [|reflexivity].
  destruct e as [|e']; [rewrite app_nil_r in B; cbn in B; congruence|].
  destruct (Nat.leb_spec (n + S e') n); [lia|reflexivity].
Qed.

Lemma render_cls n (l : list N) : render_line n (cls n l) = spaces n ++ l.
Proof.
  destruct l as [|c r].
  - rewrite cls_nil, app_nil_r. reflexivity.
  - destruct (cls_text n (c :: r)) as (e & s & A & B & _); [discriminate|]. rewrite A. cbn [render_line].
    unfold line_text in B. rewrite <- B. unfold spaces. rewrite repeat_app, <- app_assoc. reflexivity.
Qed.

Lemma lfs_snoc k : lfs k ++ [10] = lfs (S k).
Proof. unfold lfs, LF. induction k as [|k IH]; [reflexivity|]. cbn [repeat app]. rewrite IH. reflexivity. Qed.

Lemma body_blank lit prev k j r : body lit prev k (Blank j :: r) = body lit prev (S k) r.
Proof. reflexivity. Qed.
Lemma body_text lit prev k e s r :
  body lit prev k (Text e s :: r) = sep lit prev k (spaced e s) ++ line_text e s ++ body lit (Some (spaced e s)) 0 r.
Proof. reflexivity. Qed.
Lemma sep_literal prev k sp : sep true prev k sp = match prev with None => lfs k | Some _ => lfs (S k) end.
Proof. destruct prev; reflexivity. Qed.

(* the literal-style text of a list of lines whose last line is not empty: the lines joined by line feeds *)
Lemma body_join n (ls : list (list N)) : forall prev k, ls <> [] -> last ls [] <> [] ->
  body true prev k (map (cls n) ls) = (match prev with None => lfs k | Some _ => lfs (S k) end) ++ join_lf ls.
Proof.
  induction ls as [|l r IH]; intros prev k Hne Hlast; [congruence|].
  destruct r as [|l2 r'].
  - cbn [last] in Hlast. destruct (cls_text n l Hlast) as (e & s & A & B & _).
    change (map (cls n) [l]) with [cls n l]. rewrite A, body_text, sep_literal, B. cbn [body join_lf]. rewrite app_nil_r. reflexivity.
  - rewrite join_lf_cons by discriminate. rewrite last_cons_ne in Hlast by discriminate.
    assert (Hne2 : l2 :: r' <> []) by discriminate.
    pose proof (fun prev k => IH prev k Hne2 Hlast) as IH'. clear IH.
    rewrite map_cons. destruct l as [|c l'].
    + rewrite cls_nil, body_blank, (IH' prev (S k)). cbn [app].
      destruct prev; rewrite <- lfs_snoc, <- app_assoc; reflexivity.
    + destruct (cls_text n (c :: l')) as (e & s & A & B & _); [discriminate|].
      rewrite A, body_text, sep_literal, (IH' (Some (spaced e s)) O), B. reflexivity.
Qed.

Lemma has_text_cons x r : has_text (x :: r) = is_text x || has_text r.
Proof. reflexivity. Qed.
Lemma has_text_cls n (ls : list (list N)) : ls <> [] -> last ls [] <> [] -> has_text (map (cls n) ls) = true.
Proof.
  induction ls as [|l r IH]; intros Hne Hlast; [congruence|]. rewrite map_cons, has_text_cons. destruct r as [|l2 r'].
  - cbn [last] in Hlast. destruct (cls_text n l Hlast) as (e & s & A & _). rewrite A. reflexivity.
  - rewrite last_cons_ne in Hlast by discriminate. rewrite IH; [apply orb_true_r|discriminate|exact Hlast].
Qed.

(* without an indentation indicator the content indentation is that of the first non-empty line *)
Lemma first_text_indent_guard n j (first : list N) rest : first <> [] -> starts_with_ch first 32 = false ->
  first_text_indent (map (fun l => raw_of (spaces n ++ l)) (repeat [] j ++ first :: rest)) = Some n.
Proof.
  intros Hne Hsp. induction j as [|j IH].
  - cbn [repeat app map first_text_indent]. unfold raw_of. rewrite strip_spaces_app. cbn [Nat.add].
    destruct first as [|c f]; [congruence|]. cbn [strip_spaces]. cbn in Hsp. change (N.eqb c 32) with (c =? 32) in Hsp. rewrite Hsp. reflexivity.
  - cbn [repeat app]. rewrite map_cons, raw_of_blank. exact IH.
Qed.

(* the emitted literal block as a case of the specification *)
Definition lit_chomp (v : list N) : chomp := if ends_with_ch v 10 then CClip else CStrip.
Definition lit_raw (level : Z) (v : list N) : list rline :=
  map (fun l => raw_of (indent (level + 1) ++ l)) (rust_lines v).
(* [prefix]: the text in front of the indicator; [parent]: the indentation of the enclosing collection (None at the
   root); [eof]: how the text goes on after the last line *)
Definition lit_case (prefix : list N) (parent : option nat) (level : Z) (v : list N) (eof : eof_shape) : bcase :=
  {| bc_literal := true; bc_chomp := lit_chomp v; bc_explicit := None; bc_digit_first := false;
     bc_parent := parent; bc_prefix := prefix; bc_hc := []; bc_raw := lit_raw level v; bc_eof := eof; bc_brk := 0 |}.
Definition eof_text (eof : eof_shape) : list N :=
  match eof with EofNewline => [10] | EofNone => [] | EofRest r => 10 :: r end.

Lemma with_breaks_lf (t : list N) : with_breaks 0 t = t.
Proof.
  unfold with_breaks. induction t as [|c r IH]; [reflexivity|]. cbn [flat_map]. rewrite IH.
  destruct (N.eqb_spec c 10) as [->|]; reflexivity.
Qed.

Section Guarded.
Variables (m : bool) (level : Z) (v : list N).
Hypothesis guard : is_literal_block m level v = true.

Let Hcr : ~ In 13 v.
Proof. destruct (is_literal_block_true _ _ _ guard) as (_ & _ & Hv & _). apply lit_chars_no_cr. exact Hv. Qed.

Lemma lit_raw_eq : lit_raw level v = map (fun l => raw_of (spaces (ind_n level) ++ l)) (rust_lines v).
Proof. unfold lit_raw. rewrite indent_spaces. reflexivity. Qed.

Lemma lit_content_indent parent : content_indent parent None (lit_raw level v) = ind_n level.
Proof.
  destruct (is_literal_block_true _ _ _ guard) as (_ & _ & _ & Hne & Hsp & _).
  destruct (guard_leading v Hcr Hne Hsp) as (j & f & rest & E & A & B).
  unfold content_indent. rewrite lit_raw_eq, E, (first_text_indent_guard _ _ _ _ A B). reflexivity.
Qed.

Lemma lit_case_indent prefix parent eof : case_indent (lit_case prefix parent level v eof) = ind_n level.
Proof. unfold case_indent. cbn [bc_parent bc_explicit bc_raw lit_case]. apply lit_content_indent. Qed.

Lemma lit_case_lines prefix parent eof :
  case_lines (lit_case prefix parent level v eof) = map (cls (ind_n level)) (rust_lines v).
Proof. unfold case_lines. rewrite lit_case_indent. cbn [bc_raw lit_case]. rewrite lit_raw_eq, map_map. reflexivity. Qed.

Lemma lit_last : rust_lines v <> [] /\ last (rust_lines v) [] <> [].
Proof.
  destruct (is_literal_block_true _ _ _ guard) as (_ & _ & _ & Hne & _ & H2 & _). apply guard_last; assumption.
Qed.

(* B1. the value the specification assigns to the block is the string *)
Theorem literal_block_value prefix parent eof : case_value (lit_case prefix parent level v eof) = v.
Proof.
  destruct lit_last as [Hl Hlast].
  unfold case_value. rewrite lit_case_lines. cbn [bc_literal bc_chomp lit_case]. unfold block_value.
  rewrite (has_text_cls _ _ Hl Hlast), (body_join _ _ None O Hl Hlast). cbn [lfs repeat app].
  etransitivity; [|symmetry; exact (rust_lines_text v Hcr)].
  unfold lit_chomp. destruct (ends_with_ch v 10); reflexivity.
Qed.

(* B2. the text of the case is what emit_literal_block writes *)
Theorem literal_block_text prefix parent eof :
  case_text (lit_case prefix parent level v eof) = prefix ++ emit_literal_block level v ++ eof_text eof.
Proof.
  unfold case_text. cbn [bc_brk bc_prefix bc_literal bc_chomp bc_explicit bc_digit_first bc_hc bc_eof lit_case].
  rewrite with_breaks_lf, lit_case_lines. f_equal. unfold render_block, emit_literal_block. cbn [app].
  assert (H : header true (lit_chomp v) None false = if ends_with_ch v 10 then [124] else [124; 45]).
  { unfold header, lit_chomp. destruct (ends_with_ch v 10); reflexivity. }
  rewrite H, lit_case_indent, <- app_assoc. clear H.
  f_equal. replace (eof_text eof) with (match eof with EofNewline => [LF] | EofNone => [] | EofRest r => LF :: r end)
    by (destruct eof; reflexivity).
  f_equal.
  induction (rust_lines v) as [|l r IH]; [reflexivity|]. cbn [map flat_map]. rewrite IH, render_cls, indent_spaces. reflexivity.
Qed.

(* B3. the side conditions of the specification.  The string must not contain U+FEFF (YAML excludes the byte order
   mark from block scalar content; `is_valid_literal_block_scalar` lets it through), the content must be indented
   more than the parent, and what follows must be the end of the input or a less indented line. *)
Definition eof_fits (parent : option nat) (eof : eof_shape) : bool :=
  match eof with EofRest r => rest_ok parent (ind_n level) true r | _ => true end.

(* what the specification calls a document marker line is what the guard's closure looks for *)
Lemma marker_line_like (s : list N) : marker_line s = true -> marker_like s = true.
Proof.
  destruct tbl_lit_root_markers as [Hd Hp]. intros H. apply existsb_exists.
  destruct s as [|a [|b [|c r]]]; try discriminate H. unfold marker_line in H. apply andb_true_iff in H as [H _].
  apply orb_true_iff in H as [H|H]; [exists [45; 45; 45]|exists [46; 46; 46]]; (split; [assumption|]);
    apply andb_true_iff in H as [H C]; apply andb_true_iff in H as [A B]; apply N.eqb_eq in A, B, C; subst; reflexivity.
Qed.

Theorem literal_block_case_ok prefix parent eof :
  ~ In 65279 v -> Nat.leb (parent_min parent) (ind_n level) = true -> eof_fits parent eof = true ->
  case_ok (lit_case prefix parent level v eof) = true.
Proof.
  intros Hbom Hpar Heof.
  destruct (is_literal_block_true _ _ _ guard) as (_ & _ & Hv & Hne & Hsp & H2 & Hroot).
  destruct (lit_chars_no_cr v Hv) as [_ Hnul]. destruct lit_last as [Hl Hlast].
  unfold case_ok. rewrite lit_case_indent. cbn [bc_raw bc_parent bc_explicit bc_hc bc_eof lit_case]. rewrite lit_raw_eq.
  repeat (apply andb_true_iff; split).
  - (* the texts of the lines *)
    apply forallb_forall. intros x Hx. apply in_map_iff in Hx. destruct Hx as (l & <- & Hin).
    destruct (raw_line (ind_n level) l) as (e & t & -> & El & Ht). cbn [snd]. unfold rest_text_ok. apply andb_true_iff. split.
    + apply forallb_forall. intros c Hc.
      assert (Hcl : In c l) by (rewrite El; apply in_or_app; right; exact Hc).
      destruct (rust_lines_chars v l c Hcr Hin Hcl) as [Hcv Hn10].
      unfold nb_char. apply negb_true_iff. repeat (apply orb_false_iff; split); apply N.eqb_neq; try congruence.
    + destruct t as [|c t']; [reflexivity|]. rewrite Ht. reflexivity.
  - (* content lines are indented by at least the content indentation *)
    apply forallb_forall. intros x Hx. apply in_map_iff in Hx. destruct Hx as (l & <- & Hin).
    destruct (raw_line (ind_n level) l) as (e & t & -> & _). cbn [fst snd]. destruct t; [reflexivity|]. apply Nat.leb_le. lia.
  - exact Hpar.
  - (* leading empty lines are not longer than the first content line *)
    destruct (guard_leading v Hcr Hne Hsp) as (j & f & rest & -> & A & B). clear - A B. induction j as [|j IH].
    + cbn [repeat app map]. destruct (raw_line (ind_n level) f) as (e & t & -> & El & _). cbn [leading_raw_blanks_le].
      destruct t as [|c t']; [|reflexivity]. exfalso.
      rewrite app_nil_r in El. subst f. destruct e as [|e]; [apply A; reflexivity|]. cbn in B. discriminate B.
    + cbn [repeat app]. rewrite map_cons, raw_of_blank. cbn [leading_raw_blanks_le]. rewrite Nat.leb_refl. exact IH.
  - (* at column 0 no line looks like a document marker *)
    destruct (ind_n level) as [|n'] eqn:En; [|reflexivity]. cbn [Nat.eqb negb orb].
    assert (Hlev : (level < 0)%Z).
    { destruct (Z.ltb_spec level 0) as [|Hge]; [assumption|]. rewrite ind_n_inner in En by exact Hge. lia. }
    destruct (Hroot Hlev) as [_ Hmark].
    apply forallb_forall. intros x Hx. apply in_map_iff in Hx. destruct Hx as (l & <- & Hin).
    cbn [spaces repeat app]. unfold raw_of.
    destruct (strip_spaces_spec l O) as (e & t & -> & El & _). cbn [fst snd Nat.add].
    destruct e as [|e]; [|reflexivity]. cbn [Nat.eqb andb]. cbn [spaces repeat app] in El. subst t.
    destruct (marker_line l) eqn:M; [|reflexivity]. apply marker_line_like in M. rewrite (Hmark l Hin) in M. discriminate M.
  - reflexivity.
  - (* the end *)
    destruct eof as [| |r].
    + reflexivity.
    + destruct (exists_last Hl) as (ls & l & El). rewrite El in Hlast |- *. rewrite last_last in Hlast.
      rewrite map_app, rev_app_distr. cbn [map rev app].
      destruct (raw_line (ind_n level) l) as (e & t & -> & E2 & _). destruct t as [|c t']; [|apply orb_true_r].
      destruct e as [|e]; [exfalso; apply Hlast; rewrite E2; reflexivity|].
      replace (ind_n level + S e)%nat with (S (ind_n level + e)) by lia. reflexivity.
    + unfold eof_fits in Heof.
      rewrite lit_case_lines, (has_text_cls _ _ Hl Hlast). exact Heof.
Qed.
End Guarded.
