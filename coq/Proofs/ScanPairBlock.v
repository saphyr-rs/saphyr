(* The scanner over the buffered input against the scanner over the string input, in the calculus of ScanPair.v
   ([rwp] is [rwpG strict N0]) - family: BLOCK SCALARS.

     scan_block_scalar_ok : rel_scan_block_scalar cap strict N0        (after the section: [forall cap, 8 <= cap -> ...])

   The block-scalar code is where the two back-ends take DIFFERENT paths:
   (1) [scan_block_scalar_content_line]: the buffered side reads buffered characters until the buffer is empty and
       then switches to the raw fast path; the string side stays in the first loop (or, with a look-ahead counter
       of 0, goes straight to the raw path);
   (2) [skip_block_scalar_indent]: [indent >= bufmaxlen - 2] is decided with bufmaxlen = 128 on the string side and
       [cap] on the buffered side: narrow path on one side, [wide] path on the other;
   (3) [skip_spaces_to .. check_buf]: the buffered side stops on an empty buffer and the [wide] loop refills it.
   These three pieces are proved by DECOUPLING ([rwp_decouple]): each side is characterised on its own, with its
   own fuel, against a pure function of the string side's state -
       nbz l      number of characters in front of the first break / NUL (content line),
       jsp i s    number of spaces [skip_spaces_to] may consume: leading spaces, at most [i - column]
   - the string side in the one-sided calculus [wp1] over [str_ops], the buffered side in [wp1b] over [buf_ops cap]
   relative to a GHOST string-side state [g] with [SR g s2] (rules [wpr_*], derived from the relational rules of
   ScanPair.v / ScanPairPrim.v).  [Mv g j a g']: g' is g after consuming j characters and advancing the mark by a.
   Each buffered-side loop has its own fuel; that it suffices is a hypothesis [enough strict n f] (n: the number of
   characters the loop may consume), which says nothing unless the calculus is strict.
   Everything else ([skip_first_line_indent], the outer loop of [skip_block_scalar_indent], [scan_block_scalar]
   itself) is in lockstep and uses the relational rules directly. *)
From Coq Require Import List NArith ZArith Bool Arith Lia.
Import ListNotations.
Require Import Parser SBase SPrim SDir SScalar SFetch SBuf InputRefine ScanLoops ScalarKit ScanPair ScanPairPrim ListKit.
Local Open Scope nat_scope.
Arguments Nat.ltb : simpl never.
Arguments Nat.leb : simpl never.
Arguments Nat.eqb : simpl never.
Arguments Nat.sub : simpl never.
Arguments Nat.max : simpl never.
Arguments N.ltb : simpl never.
Arguments N.eqb : simpl never.
Arguments N.leb : simpl never.
Arguments N.add : simpl never.
Arguments N.sub : simpl never.
Arguments N.max : simpl never.

(* one-sided partial-correctness calculus (any back-end) *)
Definition wp1 {J A} (m : @M J A) (P : A -> sc J -> Prop) (s : sc J) : Prop :=
  match m s with Ok (a, t) => P a t | Err _ _ => False | _ => True end.

Lemma wp1_ret {J A} (a : A) (P : A -> sc J -> Prop) s : P a s -> wp1 (ret a) P s.
Proof. auto. Qed.
Lemma wp1_bind {J A B} (m : @M J A) (f : A -> @M J B) (P : B -> sc J -> Prop) s :
  wp1 m (fun a t => wp1 (f a) P t) s -> wp1 (bind m f) P s.
Proof. unfold wp1, bind. destruct (m s) as [[a t]| | |]; auto. Qed.
Lemma wp1_mono {J A} (m : @M J A) (P P' : A -> sc J -> Prop) s :
  wp1 m P s -> (forall a t, P a t -> P' a t) -> wp1 m P' s.
Proof. unfold wp1. destruct (m s) as [[a t]| | |]; auto. Qed.
Lemma wp1_oof {J A} (P : A -> sc J -> Prop) s : wp1 (@oof J A) P s.
Proof. exact I. Qed.
Lemma wp1_panic {J A} site (P : A -> sc J -> Prop) s : wp1 (@panic J A site) P s.
Proof. exact I. Qed.

Section Decouple.
Variable strict : bool.
Variable N0 : nat.
Local Notation rwp := (rwpG strict N0).

(* the same calculus for the buffered side: OutOfFuel is an escape unless the calculus is strict - then its fuel
   must be shown to suffice *)
Definition wp1g {J A} (m : @M J A) (P : A -> sc J -> Prop) (s : sc J) : Prop :=
  match m s with Ok (a, t) => P a t | Err _ _ => False | Panic _ => True | OutOfFuel => oof_r strict end.
Local Notation wp1b := wp1g.
Lemma wp1b_ret {J A} (a : A) (P : A -> sc J -> Prop) s : P a s -> wp1b (ret a) P s.
Proof. auto. Qed.
Lemma wp1b_bind {J A B} (m : @M J A) (f : A -> @M J B) (P : B -> sc J -> Prop) s :
  wp1b m (fun a t => wp1b (f a) P t) s -> wp1b (bind m f) P s.
Proof. unfold wp1g, bind. destruct (m s) as [[a t]| | |]; auto. Qed.
Lemma wp1b_mono {J A} (m : @M J A) (P P' : A -> sc J -> Prop) s :
  wp1b m P s -> (forall a t, P a t -> P' a t) -> wp1b m P' s.
Proof. unfold wp1g. destruct (m s) as [[a t]| | |]; auto. Qed.
Lemma wp1b_panic {J A} site (P : A -> sc J -> Prop) s : wp1b (@panic J A site) P s.
Proof. exact I. Qed.
Lemma wp1b_oof {J A} (P : A -> sc J -> Prop) s : strict <> true -> wp1b (@oof J A) P s.
Proof. unfold wp1g, oof, oof_r. destruct strict; [intros H; destruct (H eq_refl)|trivial]. Qed.

(* the fuel [f] suffices for a loop that runs at most [n] times *)
Definition enough (n f : nat) : Prop := strict = true -> n < f.
Lemma enough_0 n : enough n 0 -> strict <> true.
Proof. intros H E. specialize (H E). lia. Qed.
Lemma enough_S n m f : enough n (S f) -> S m <= n -> enough m f.
Proof. intros H L E. specialize (H E). lia. Qed.
Lemma enough_le n m f : enough n f -> m <= n -> enough m f.
Proof. intros H L E. specialize (H E). lia. Qed.
(* where the fuel hypotheses come from: the calculus' bound and the premise of the contract *)
Lemma enough_bound s1 n F :
  bounded strict N0 s1 -> (strict = true -> 2 * N0 + 6 <= F) -> n <= length (rem1 s1) -> enough n F.
Proof. intros B HF L E. specialize (HF E). pose proof (bounded_strict _ _ _ B E). lia. Qed.

(* the two sides characterised separately: the string side in [wp1] (its own fuel is not our concern), the buffered
   side in [wp1b] *)
Lemma rwp_decouple {A1 A2} (m1 : M1 A1) (m2 : M2 A2) (P1 : A1 -> st1 -> Prop)
  (Q : A1 -> st1 -> A2 -> st2 -> Prop) s1 s2 :
  wp1 m1 P1 s1 -> (forall a1 t1, P1 a1 t1 -> length (rem1 t1) <= length (rem1 s1)) ->
  (forall a1 t1, P1 a1 t1 -> wp1b m2 (fun a2 t2 => Q a1 t1 a2 t2) s2) -> rwp m1 m2 Q s1 s2.
Proof.
  unfold wp1, wp1g, rwpG. intros H1 HL H2 B. destruct (m1 s1) as [[a1 t1]|e1 k1|n1|].
  - specialize (H2 _ _ H1). specialize (HL _ _ H1). destruct (m2 s2) as [[a2 t2]| | |]; auto.
    split; [exact (bounded_le _ _ _ _ HL B)|exact H2].
  - contradiction.
  - exact I.
  - exact I.
Qed.
(* a relational rule read as a rule about the buffered side alone *)
Lemma wp1_of_rwp {A1 A2} (m1 : M1 A1) (m2 : M2 A2) (Q : A1 -> st1 -> A2 -> st2 -> Prop) s1 s2 a1 t1 :
  m1 s1 = Ok (a1, t1) -> bounded strict N0 s1 -> rwp m1 m2 Q s1 s2 -> wp1b m2 (fun a2 t2 => Q a1 t1 a2 t2) s2.
Proof.
  unfold rwpG, wp1g. intros E B H. specialize (H B). rewrite E in H.
  destruct (m2 s2) as [[a2 t2]| | |]; auto. destruct H as [_ H]. exact H.
Qed.
(* a fact about the string side's result, proved on the string side alone *)
Lemma rwp_post_l {A1 A2} (m1 : M1 A1) (m2 : M2 A2) (P : A1 -> st1 -> Prop) (Q : A1 -> st1 -> A2 -> st2 -> Prop) s1 s2 :
  (forall a1 t1, m1 s1 = Ok (a1, t1) -> P a1 t1) ->
  rwp m1 m2 (fun a1 t1 a2 t2 => P a1 t1 -> Q a1 t1 a2 t2) s1 s2 -> rwp m1 m2 Q s1 s2.
Proof.
  unfold rwpG. intros HP H B. specialize (H B). destruct (m1 s1) as [[a1 t1]|e1 k1|n1|]; auto.
  destruct (m2 s2) as [[a2 t2]| | |]; auto. destruct H as [Bt H]. split; [exact Bt|]. apply H. apply HP. reflexivity.
Qed.
End Decouple.

(* pure functions of the remaining text *)
(* characters in front of the first break or NUL (the end of the text counts as NUL) *)
Fixpoint nbz (l : list chr) : nat :=
  match l with [] => 0 | c :: r => if is_breakz c then 0 else S (nbz r) end.
(* leading spaces, at most n *)
Fixpoint nsp (n : nat) (l : list chr) : nat :=
  match n, l with
  | S n, c :: r => if (c =? 32)%N then S (nsp n r) else 0
  | _, _ => 0
  end.

Lemma breakz_0 : is_breakz 0%N = true.
Proof. reflexivity. Qed.
Lemma nbz_stop l : is_breakz (nth 0 l 0%N) = true -> nbz l = 0.
Proof. destruct l as [|c r]; cbn [nbz nth]; [reflexivity|]. intros ->. reflexivity. Qed.
Lemma nbz_step (l : list chr) : is_breakz (nth 0 l 0%N) = false ->
  l = @cons chr (@nth chr 0 l 0%N) (@tl chr l) /\ nbz l = S (nbz (@tl chr l)).
Proof.
  destruct l as [|c r]; cbn [nbz nth tl]; [rewrite breakz_0; discriminate|]. intros ->. split; reflexivity.
Qed.
Lemma nbz_skipn : forall j l, j <= nbz l -> nbz (skipn j l) = nbz l - j.
Proof.
  induction j as [|j IH]; intros l H; [cbn [skipn]; lia|].
  destruct l as [|c r]; cbn [nbz] in *; [lia|]. destruct (is_breakz c); [lia|].
  cbn [skipn]. rewrite IH by lia. lia.
Qed.
Lemma firstn_add {A} : forall j k (l : list A), firstn (j + k) l = firstn j l ++ firstn k (skipn j l).
Proof.
  induction j as [|j IH]; intros k l; [reflexivity|].
  destruct l as [|c r]; [destruct k; reflexivity|]. cbn [Nat.add firstn skipn app]. rewrite IH. reflexivity.
Qed.

Lemma firstn_step (l : list chr) j (acc : list chr) : is_breakz (nth 0 l 0%N) = false ->
  rev (firstn (S j) l) ++ acc = rev (firstn j (@tl chr l)) ++ @cons chr (@nth chr 0 l 0%N) acc.
Proof.
  destruct l as [|c r]; cbn [nth tl firstn rev]; [rewrite breakz_0; discriminate|]. intros _.
  rewrite <- app_assoc. reflexivity.
Qed.

Lemma nsp_0 l : nsp 0 l = 0.
Proof. destruct l; reflexivity. Qed.
Lemma nsp_le : forall n l, nsp n l <= n.
Proof.
  induction n as [|n IH]; intros l; [rewrite nsp_0; lia|]. destruct l as [|c r]; cbn [nsp]; [lia|].
  destruct (c =? 32)%N; [specialize (IH r)|]; lia.
Qed.
Lemma nsp_stop n l : nth 0 l 0%N <> 32%N -> nsp n l = 0.
Proof.
  destruct n as [|n]; [intros _; apply nsp_0|]. destruct l as [|c r]; cbn [nsp nth]; [reflexivity|].
  intros H. destruct (N.eqb_spec c 32); [contradiction|reflexivity].
Qed.
Lemma nsp_step n (l : list chr) : @nth chr 0 l 0%N = 32%N -> nsp (S n) l = S (nsp n (@tl chr l)).
Proof.
  destruct l as [|c r]; cbn [nsp nth tl]; [discriminate|]. intros ->. rewrite N.eqb_refl. reflexivity.
Qed.
Lemma nsp_split : forall i n l, i <= nsp n l -> nsp (n - i) (skipn i l) = nsp n l - i.
Proof.
  induction i as [|i IH]; intros n l H; [cbn [skipn]; rewrite !Nat.sub_0_r; reflexivity|].
  destruct n as [|n]; [rewrite nsp_0 in H; lia|]. destruct l as [|c r]; cbn [nsp] in *; [lia|].
  destruct (c =? 32)%N; [|lia]. cbn [skipn]. replace (S n - S i) with (n - i) by lia.
  rewrite IH by lia. lia.
Qed.

(* string-side states: consumed characters and mark movement *)
Notation mcol s := (m_col (sc_mark s)).
Definition lk1 (s : st1) : nat := si_look (sc_in s).

(* [Mv g j a g']: g' is g with j characters consumed and the mark advanced by a (same line); the look-ahead
   counter is not part of it (the state relation [SR] does not see it either) *)
Definition Mv (g : st1) (j : nat) (a : N) (g' : st1) : Prop :=
  rem1 g' = skipn j (rem1 g) /\ erase g' = set_mark (adv a (sc_mark g)) (erase g).
Notation Adv g j g' := (Mv g j (N.of_nat j) g').

Lemma erase_mark {J} (g : sc J) e : erase g = e -> sc_mark g = sc_mark e.
Proof. intros <-. reflexivity. Qed.
Lemma erase_adv0 {J} (g : sc J) : erase g = set_mark (adv 0 (sc_mark g)) (erase g).
Proof. rewrite adv_0. destruct g; reflexivity. Qed.
Lemma Mv_refl g : Mv g 0 0 g.
Proof. split; [reflexivity|apply erase_adv0]. Qed.
Lemma Mv_ext g g' : rem1 g' = rem1 g -> erase g' = erase g -> Mv g 0 0 g'.
Proof. intros R E. split; [exact R|]. rewrite E. apply erase_adv0. Qed.
Lemma Mv_mark g j a g' : Mv g j a g' -> sc_mark g' = adv a (sc_mark g).
Proof. intros [_ E]. apply erase_mark in E. exact E. Qed.
Lemma Mv_mcol g j a g' : Mv g j a g' -> mcol g' = (mcol g + a)%N.
Proof. intros H. rewrite (Mv_mark _ _ _ _ H). reflexivity. Qed.
Lemma Mv_trans a i x b j y c : Mv a i x b -> Mv b j y c -> Mv a (i + j) (x + y) c.
Proof.
  intros [R1 E1] [R2 E2]. split; [rewrite R2, R1; apply skipn_add|].
  rewrite E2. rewrite (erase_mark _ _ E1). rewrite E1. cbn [sc_mark set_mark upd]. rewrite adv_adv. reflexivity.
Qed.
Lemma Mv_eq g j a g' j' a' : Mv g j a g' -> j = j' -> a = a' -> Mv g j' a' g'.
Proof. intros H <- <-. exact H. Qed.
Lemma Adv_trans a i b j c : Adv a i b -> Adv b j c -> Adv a (i + j) c.
Proof. intros H1 H2. eapply Mv_eq; [exact (Mv_trans _ _ _ _ _ _ _ H1 H2)|reflexivity|lia]. Qed.
Lemma Mv_rn1 g j a g' i : Mv g j a g' -> rn1 g' i = rn1 g (j + i).
Proof. intros [R _]. apply rn1_skipn. exact R. Qed.

Lemma Nh_raw n k : (0 + (n + 1 + N.of_nat k))%N = (n + N.of_nat (S k))%N.
Proof. lia. Qed.

(* the state relation only sees the remaining text and the skeleton *)
Lemma SR_ext t1 g t2 : rem1 t1 = rem1 g -> erase t1 = erase g -> SR g t2 -> SR t1 t2.
Proof.
  intros R E [[k Hk] E2]. split; [|rewrite E; exact E2]. exists k. unfold rem1 in R. rewrite R. exact Hk.
Qed.
Lemma Mv_SR s1 j a t1 g t2 : Mv s1 j a t1 -> Mv s1 j a g -> SR g t2 -> SR t1 t2.
Proof. intros [R1 E1] [R2 E2] HS. apply (SR_ext t1 g t2); [congruence|congruence|exact HS]. Qed.

(* the number of spaces [skip_spaces_to indent] may consume *)
Definition jsp (indent : N) (g : st1) : nat := nsp (N.to_nat (indent - mcol g)) (rem1 g).
Lemma jsp_Adv indent g i g' : Adv g i g' -> i <= jsp indent g -> jsp indent g' = jsp indent g - i.
Proof.
  intros H Hi. unfold jsp in *. rewrite (Mv_mcol _ _ _ _ H). destruct H as [R _]. rewrite R.
  replace (N.to_nat (indent - (mcol g + N.of_nat i))) with (N.to_nat (indent - mcol g) - i) by lia.
  apply nsp_split. exact Hi.
Qed.
Lemma jsp_Mv0 indent g g' : Mv g 0 0 g' -> jsp indent g' = jsp indent g.
Proof. intros H. rewrite (jsp_Adv indent g 0 g' H) by lia. lia. Qed.


(* bounds used by the fuel hypotheses of the buffered side *)
Lemma nbz_le l : nbz l <= length l.
Proof. induction l as [|c r IH]; cbn [nbz length]; [lia|]. destruct (is_breakz c); lia. Qed.
Lemma nsp_le_len : forall n l, nsp n l <= length l.
Proof.
  induction n as [|n IH]; intros l; [rewrite nsp_0; lia|]. destruct l as [|c r]; cbn [nsp length]; [lia|].
  destruct (c =? 32)%N; [specialize (IH r)|]; lia.
Qed.
Lemma jsp_le_len indent g : jsp indent g <= length (rem1 g).
Proof. apply nsp_le_len. Qed.
Lemma Mv_len g j a g' : Mv g j a g' -> length (rem1 g') <= length (rem1 g).
Proof. intros [R _]. rewrite R, skipn_length. lia. Qed.
(* where a complete run of [skip_spaces_to] ends: the column budget is used up, or in front of a non-space *)
Lemma nsp_end : forall n l, nsp n l = n \/ nth (nsp n l) l 0%N <> 32%N.
Proof.
  induction n as [|n IH]; intros l; [left; apply nsp_0|].
  destruct l as [|c r]; cbn [nsp]; [right; cbn; discriminate|].
  destruct (N.eqb_spec c 32) as [E|NE].
  - destruct (IH r) as [H|H]; [left; lia|right; exact H].
  - right. cbn [nth]. exact NE.
Qed.
(* [P0]: the column is not beyond the target, or the next character is not a space (holds whenever
   skip_block_scalar_indent is entered: right after a line break, or at the end of the input);
   then a complete run ends with the column ON the target or in front of a non-space: the [wide] loop stops *)
Definition P0 (indent : N) (g : st1) : Prop := (mcol g <= indent)%N \/ rn1 g 0 <> 32%N.
Lemma jsp_complete indent g g1 : P0 indent g -> Adv g (jsp indent g) g1 -> mcol g1 = indent \/ rn1 g1 0 <> 32%N.
Proof.
  intros HP A. pose proof (Mv_mcol _ _ _ _ A) as C. rewrite (Mv_rn1 _ _ _ _ 0 A), Nat.add_0_r.
  unfold jsp in *. destruct (nsp_end (N.to_nat (indent - mcol g)) (rem1 g)) as [E|E].
  - destruct HP as [H|H].
    + left. rewrite C, E. lia.
    + right. rewrite (nsp_stop _ _ H). exact H.
  - right. exact E.
Qed.
Lemma P0_Mv0 indent g g' : Mv g 0 0 g' -> P0 indent g -> P0 indent g'.
Proof.
  intros M [H|H]; [left; rewrite (Mv_mcol _ _ _ _ M); lia|right; rewrite (Mv_rn1 _ _ _ _ 0 M); exact H].
Qed.
(* [skip_break] leaves the string side at column 0 *)
Lemma skip_break_col0 (s1 t1 : st1) : skip_break str_ops s1 = Ok (tt, t1) -> mcol t1 = 0%N.
Proof.
  unfold skip_break, bind, SPrim.peek, peekn, skip_blank, skip_nl, in_skip, adv_mark, modify, ret, panic.
  cbn [peek_nth str_ops]. destruct (is_break _); [|discriminate].
  destruct (_ && _)%bool; intros H; inversion H; reflexivity.
Qed.

Section RelBlock.
Variable cap : nat.
Hypothesis cap_ge : 8 <= cap.
Variable strict : bool.
Variable N0 : nat.
Local Notation rwp := (rwpG strict N0).
Local Notation wp1b := (wp1g strict).
Local Notation enough := (enough strict).
Notation sops := str_ops.
Notation bops := (buf_ops cap).

(* the string side alone *)
Lemma wpl_look n (P : unit -> st1 -> Prop) s1 :
  (forall t1, Mv s1 0 0 t1 -> lk1 t1 = Nat.max (lk1 s1) n -> P tt t1) -> wp1 (look sops n) P s1.
Proof. intros H. unfold wp1. rewrite look_str_ok. apply H; [apply Mv_ext; reflexivity|reflexivity]. Qed.
Lemma wpl_peek (P : chr -> st1 -> Prop) s1 : P (rn1 s1 0) s1 -> wp1 (SPrim.peek sops) P s1.
Proof. intros H. exact H. Qed.
Lemma wpl_buf_is_empty (P : bool -> st1 -> Prop) s1 : P (Nat.eqb (lk1 s1) 0) s1 -> wp1 (buf_is_empty sops) P s1.
Proof. intros H. exact H. Qed.
Lemma wpl_col (P : N -> st1 -> Prop) s1 : P (mcol s1) s1 -> wp1 (@col strin) P s1.
Proof. intros H. exact H. Qed.
Lemma skipn1_tl {A} (l : list A) : tl l = skipn 1 l.
Proof. destruct l; reflexivity. Qed.
Lemma wpl_skip_blank (P : unit -> st1 -> Prop) s1 :
  (forall t1, Adv s1 1 t1 -> lk1 t1 = lk1 s1 -> P tt t1) -> wp1 (skip_blank sops) P s1.
Proof.
  intros H. unfold wp1. cbn [skip_blank in_skip adv_mark modify bind]. apply H; [|reflexivity].
  split; [unfold rem1; cbn; apply skipn1_tl|reflexivity].
Qed.
Lemma wpl_adv_mark n (P : unit -> st1 -> Prop) s1 :
  (forall t1, Mv s1 0 n t1 -> lk1 t1 = lk1 s1 -> P tt t1) -> wp1 (@adv_mark strin n) P s1.
Proof. intros H. unfold wp1, adv_mark, modify. apply H; [|reflexivity]. split; reflexivity. Qed.
Lemma wpl_raw_read (P : option chr -> st1 -> Prop) s1 :
  (forall t1, Mv s1 0 0 t1 -> lk1 t1 = lk1 s1 -> is_breakz (rn1 s1 0) = true -> P None t1) ->
  (forall x t1, is_breakz x = false -> rn1 s1 0 = x -> Mv s1 1 0 t1 -> lk1 t1 = lk1 s1 -> P (Some x) t1) ->
  wp1 (raw_read sops) P s1.
Proof.
  intros HN HS. unfold wp1, raw_read. cbn [raw_read_non_breakz str_ops]. unfold rn1, rem1 in *.
  destruct (si_chars (sc_in s1)) as [|c r] eqn:EC.
  - apply HN; [apply Mv_ext; reflexivity|reflexivity|apply breakz_0].
  - destruct (is_breakz c) eqn:Eb.
    + apply HN; [apply Mv_ext; reflexivity|reflexivity|exact Eb].
    + apply HS; [exact Eb|reflexivity| |reflexivity].
      split; [unfold rem1; cbn [sc_in set_in upd si_chars]; rewrite EC; reflexivity|].
      rewrite erase_set_in. apply erase_adv0.
Qed.

(* ---------------- the buffered side alone, relative to a ghost string-side state [g] ----------------
   [GS g s2]: the ghost is related to the buffered state and within the calculus' bound *)
Definition GS (g : st1) (s2 : st2) : Prop := SR g s2 /\ bounded strict N0 g.
Lemma GS_Mv g j a g' t2 : bounded strict N0 g -> Mv g j a g' -> SR g' t2 -> GS g' t2.
Proof. intros B M HS. split; [exact HS|]. exact (bounded_le _ _ _ _ (Mv_len _ _ _ _ M) B). Qed.
Lemma GS_SR g s2 : GS g s2 -> SR g s2.
Proof. intros [H _]. exact H. Qed.

Lemma wpr_look n g (P : unit -> st2 -> Prop) s2 : GS g s2 -> n <= cap ->
  (forall t2, GS g t2 -> n <= bl2 t2 -> bl2 s2 <= bl2 t2 -> P tt t2) -> wp1b (look bops n) P s2.
Proof.
  intros [HS B] Hn HP. destruct (look_buf_ok cap cap_ge n g s2 HS Hn) as (t2 & E & H1 & H2 & H3).
  unfold wp1b. rewrite E. apply HP; [split|idtac|idtac]; assumption.
Qed.
Lemma wpr_peek g (P : chr -> st2 -> Prop) s2 : GS g s2 -> 1 <= bl2 s2 -> P (rn1 g 0) s2 -> wp1b (SPrim.peek bops) P s2.
Proof.
  intros [HS B] HB HP.
  exact (wp1_of_rwp strict N0 (SPrim.peek sops) (SPrim.peek bops) (fun _ _ c t2 => P c t2) g s2 (rn1 g 0) g eq_refl B
           (rwp_peek cap cap_ge strict N0 _ g s2 HS HB HP)).
Qed.
Lemma wpr_buf_is_empty (P : bool -> st2 -> Prop) s2 : P (Nat.eqb (bl2 s2) 0) s2 -> wp1b (buf_is_empty bops) P s2.
Proof. intros H. exact H. Qed.
Lemma wpr_col g (P : N -> st2 -> Prop) s2 : GS g s2 -> P (mcol g) s2 -> wp1b (@col bufin) P s2.
Proof. intros [HS _] H. unfold wp1b, col, gets. rewrite <- (SR_mark _ _ HS). exact H. Qed.
Lemma wpr_skip_blank g (P : unit -> st2 -> Prop) s2 : GS g s2 -> 1 <= bl2 s2 ->
  (forall g' t2, GS g' t2 -> Adv g 1 g' -> bl2 t2 = bl2 s2 - 1 -> P tt t2) -> wp1b (skip_blank bops) P s2.
Proof.
  intros [HS B] HB HP.
  pose (g' := set_mark (adv 1 (sc_mark g)) (set_in (skip1 sops (sc_in g)) g)).
  assert (E : skip_blank sops g = Ok (tt, g')) by reflexivity.
  assert (A : Adv g 1 g') by (split; [unfold rem1; cbn; apply skipn1_tl|reflexivity]).
  eapply wp1b_mono.
  - apply (wp1_of_rwp strict N0 _ _ (fun _ t1 _ t2 => SR t1 t2 /\ bl2 t2 = bl2 s2 - 1) g s2 tt g' E B).
    apply (rwp_skip_blank cap cap_ge); [exact HS|exact HB|]. intros t1 t2 HT _ BT. split; assumption.
  - cbv beta. intros [] t2 [HT BT]. apply (HP g' t2); [|exact A|exact BT].
    exact (GS_Mv g 1 (N.of_nat 1) g' t2 B A HT).
Qed.
Lemma wpr_adv_mark n g (P : unit -> st2 -> Prop) s2 : GS g s2 ->
  (forall g' t2, GS g' t2 -> Mv g 0 n g' -> bl2 t2 = bl2 s2 -> P tt t2) -> wp1b (@adv_mark bufin n) P s2.
Proof.
  intros [HS B] HP.
  pose (g' := set_mark (adv n (sc_mark g)) g).
  assert (E : @adv_mark strin n g = Ok (tt, g')) by reflexivity.
  assert (A : Mv g 0 n g') by (split; reflexivity).
  eapply wp1b_mono.
  - apply (wp1_of_rwp strict N0 _ _ (fun _ t1 _ t2 => SR t1 t2 /\ bl2 t2 = bl2 s2) g s2 tt g' E B).
    apply rwp_adv_mark; [exact HS|]. intros t1 t2 HT _ BT. split; assumption.
  - cbv beta. intros [] t2 [HT BT]. apply (HP g' t2); [|exact A|exact BT].
    exact (GS_Mv g 0 n g' t2 B A HT).
Qed.
Lemma wpr_raw_read g (P : option chr -> st2 -> Prop) s2 : GS g s2 -> bl2 s2 = 0 ->
  (forall t2, GS g t2 -> is_breakz (rn1 g 0) = true -> P None t2) ->
  (forall x g' t2, is_breakz x = false -> rn1 g 0 = x -> Mv g 1 0 g' -> GS g' t2 -> bl2 t2 = 0 -> P (Some x) t2) ->
  wp1b (raw_read bops) P s2.
Proof.
  intros [HS B] HB HN HSm.
  assert (EX : exists c t1, raw_read sops g = Ok (c, t1)).
  { unfold raw_read. cbn [raw_read_non_breakz str_ops]. destruct (si_chars (sc_in g)) as [|c r]; [eauto|].
    destruct (is_breakz c); eauto. }
  destruct EX as (c0 & t0 & E).
  apply (wp1_of_rwp strict N0 _ _ (fun _ _ c t2 => P c t2) g s2 c0 t0 E B).
  apply (rwp_raw_read cap cap_ge); [exact HS|exact HB|]. intros c t1 t2 HT ET HC. destruct c as [x|].
  - destruct HC as (R & Eb & B0).
    assert (M1 : Mv g 1 0 t1) by (split; [rewrite R; reflexivity|rewrite ET; apply erase_adv0]).
    apply (HSm x t1 t2 Eb); [unfold rn1; rewrite R; reflexivity|exact M1| |exact B0].
    exact (GS_Mv g 1 0%N t1 t2 B M1 HT).
  - destruct HC as (R & _ & _ & Hb). apply HN.
    + split; [|exact B]. apply (SR_ext g t1 t2); [symmetry; exact R|symmetry; exact ET|exact HT].
    + unfold rn1. destruct (rem1 g) as [|x r]; [apply breakz_0|exact Hb].
Qed.

(* ---------------- (1) scan_block_scalar_content_line ----------------
   Both sides append the characters in front of the first break / NUL ([nbz]) and stop there, whatever the mix of
   the buffered loop and the raw fast path. *)
Definition line_of (l acc : list chr) : list chr := rev (firstn (nbz l) l) ++ acc.

(* string side, buffered loop with a non-zero look-ahead counter: the whole line *)
Lemma str_go : forall f acc s1, lk1 s1 <> 0 ->
  wp1 (bs_go sops f acc) (fun a t1 => a = line_of (rem1 s1) acc /\ Adv s1 (nbz (rem1 s1)) t1 /\ lk1 t1 = lk1 s1) s1.
Proof.
  induction f as [|f IH]; intros acc s1 Hlk; [exact I|]. cbn [bs_go].
  apply wp1_bind. apply wpl_buf_is_empty. destruct (Nat.eqb_spec (lk1 s1) 0) as [E0|_]; [contradiction|].
  apply wp1_bind. apply wpl_peek. destruct (is_breakz (rn1 s1 0)) eqn:Eb.
  - apply wp1_ret. unfold line_of. unfold rn1 in Eb. rewrite (nbz_stop _ Eb). split; [reflexivity|]. split; [apply Mv_refl|reflexivity].
  - apply wp1_bind. apply wpl_skip_blank. intros t1 A1 L1.
    eapply wp1_mono; [apply IH; rewrite L1; exact Hlk|]. cbv beta. intros a u (Ea & Au & Lu).
    unfold rn1 in Eb. destruct (nbz_step _ Eb) as [El Ek]. fold (rn1 s1 0) in El.
    assert (R1 : rem1 t1 = tl (rem1 s1)) by (destruct A1 as [R _]; rewrite R; symmetry; apply skipn1_tl).
    rewrite R1 in Ea, Au. split; [|split; [|congruence]].
    + rewrite Ea. unfold line_of. rewrite Ek. symmetry. apply firstn_step. assumption.
    + rewrite Ek. exact (Adv_trans _ _ _ _ _ A1 Au).
Qed.
(* string side, raw fast path *)
Lemma str_raw : forall f acc n s1,
  wp1 (bs_raw sops f acc n) (fun a t1 => a = line_of (rem1 s1) acc /\ Mv s1 (nbz (rem1 s1)) (n + N.of_nat (nbz (rem1 s1))) t1) s1.
Proof.
  induction f as [|f IH]; intros acc n s1; [exact I|]. cbn [bs_raw].
  apply wp1_bind. apply wpl_raw_read.
  - intros t1 M1 _ Eb. apply wp1_bind. apply wpl_adv_mark. intros u Mu _. apply wp1_ret.
    unfold line_of. unfold rn1 in Eb. rewrite (nbz_stop _ Eb). split; [reflexivity|].
    eapply Mv_eq; [exact (Mv_trans _ _ _ _ _ _ _ M1 Mu)|reflexivity|lia].
  - intros x t1 Eb Ex M1 _. eapply wp1_mono; [apply IH|]. cbv beta. intros a u (Ea & Mu).
    assert (Eb' : is_breakz (nth 0 (rem1 s1) 0%N) = false) by (fold (rn1 s1 0); rewrite Ex; exact Eb).
    destruct (nbz_step _ Eb') as [_ Ek].
    assert (R1 : rem1 t1 = tl (rem1 s1)) by (destruct M1 as [R _]; rewrite R; symmetry; apply skipn1_tl).
    rewrite R1 in Ea, Mu. split.
    + rewrite Ea. unfold line_of. rewrite Ek. subst x. exact (eq_sym (firstn_step (rem1 s1) _ acc Eb')).
    + rewrite Ek. eapply Mv_eq; [exact (Mv_trans _ _ _ _ _ _ _ M1 Mu)|reflexivity|apply Nh_raw].
Qed.
Lemma str_content_line F acc s1 :
  wp1 (scan_block_scalar_content_line sops F acc) (fun a t1 => a = line_of (rem1 s1) acc /\ Adv s1 (nbz (rem1 s1)) t1) s1.
Proof.
  rewrite content_line_eq. apply wp1_bind. destruct (Nat.eq_dec (lk1 s1) 0) as [E0|NZ0].
  - (* look-ahead counter 0: straight to the raw path *)
    destruct F as [|F]; [exact I|]. cbn [bs_go]. apply wp1_bind. apply wpl_buf_is_empty. rewrite E0.
    change (Nat.eqb 0 0) with true. cbv iota. apply wp1_ret. apply wp1_bind. apply wpl_buf_is_empty. rewrite E0.
    change (Nat.eqb 0 0) with true. cbv iota.
    eapply wp1_mono; [apply str_raw|]. cbv beta. intros a t1 [Ea Ma]. split; [exact Ea|].
    eapply Mv_eq; [exact Ma|reflexivity|lia].
  - eapply wp1_mono; [apply str_go; exact NZ0|]. cbv beta. intros a t1 (Ea & Aa & La).
    apply wp1_bind. apply wpl_buf_is_empty. destruct (Nat.eqb_spec (lk1 t1) 0) as [E0|_]; [congruence|].
    apply wp1_ret. split; assumption.
Qed.

(* buffered side, buffered loop: a prefix of the line, up to an empty buffer or the whole of it *)
Lemma buf_go : forall f acc g s2, GS g s2 -> enough (nbz (rem1 g)) f ->
  wp1b (bs_go bops f acc)
      (fun a t2 => exists j g', j <= nbz (rem1 g) /\ a = rev (firstn j (rem1 g)) ++ acc /\ Adv g j g' /\ GS g' t2 /\
                                (bl2 t2 = 0 \/ j = nbz (rem1 g))) s2.
Proof.
  induction f as [|f IH]; intros acc g s2 HS Hf; [exact (wp1b_oof _ _ _ (enough_0 _ _ Hf))|]. cbn [bs_go].
  apply wp1b_bind. apply wpr_buf_is_empty. destruct (Nat.eqb_spec (bl2 s2) 0) as [E0|NZ0].
  - apply wp1b_ret. exists 0, g. split; [lia|]. split; [reflexivity|]. split; [apply Mv_refl|]. split; [exact HS|left; exact E0].
  - apply wp1b_bind. apply (wpr_peek g); [exact HS|lia|]. destruct (is_breakz (rn1 g 0)) eqn:Eb.
    + apply wp1b_ret. unfold rn1 in Eb. exists 0, g. rewrite (nbz_stop _ Eb). split; [lia|]. split; [reflexivity|].
      split; [apply Mv_refl|]. split; [exact HS|right; reflexivity].
    + unfold rn1 in Eb. destruct (nbz_step _ Eb) as [El Ek]. fold (rn1 g 0) in El.
      apply wp1b_bind. apply (wpr_skip_blank g); [exact HS|lia|]. intros g1 t2 HT A1 BT.
      assert (R1 : rem1 g1 = tl (rem1 g)) by (destruct A1 as [R _]; rewrite R; symmetry; apply skipn1_tl).
      eapply wp1b_mono; [apply IH; [exact HT|apply (enough_S _ _ _ _ Hf); rewrite R1; lia]|]. cbv beta. intros a u (j & g' & Hj & Ea & Aj & HU & D).
      rewrite R1 in Hj, Ea, D. exists (S j), g'. split; [lia|]. split; [|split; [|split]].
      * rewrite Ea. symmetry. apply firstn_step. exact Eb.
      * exact (Adv_trans _ _ _ _ _ A1 Aj).
      * exact HU.
      * destruct D as [D|D]; [left; exact D|right; lia].
Qed.
(* buffered side, raw fast path (entered with an empty buffer): the rest of the line *)
Lemma buf_raw : forall f acc n g s2, GS g s2 -> bl2 s2 = 0 -> enough (nbz (rem1 g)) f ->
  wp1b (bs_raw bops f acc n)
      (fun a t2 => a = line_of (rem1 g) acc /\ exists g', Mv g (nbz (rem1 g)) (n + N.of_nat (nbz (rem1 g))) g' /\ GS g' t2) s2.
Proof.
  induction f as [|f IH]; intros acc n g s2 HS HB Hf; [exact (wp1b_oof _ _ _ (enough_0 _ _ Hf))|]. cbn [bs_raw].
  apply wp1b_bind. apply (wpr_raw_read g); [exact HS|exact HB| |].
  - intros t2 HT Eb. apply wp1b_bind. apply (wpr_adv_mark n g); [exact HT|]. intros g' u HU Mu _. apply wp1b_ret.
    unfold line_of. unfold rn1 in Eb. rewrite (nbz_stop _ Eb). split; [reflexivity|]. exists g'. split; [|exact HU].
    eapply Mv_eq; [exact Mu|reflexivity|lia].
  - intros x g1 t2 Eb Ex M1 HT BT.
    assert (Eb' : is_breakz (nth 0 (rem1 g) 0%N) = false) by (fold (rn1 g 0); rewrite Ex; exact Eb).
    destruct (nbz_step _ Eb') as [_ Ek].
    assert (R1 : rem1 g1 = tl (rem1 g)) by (destruct M1 as [R _]; rewrite R; symmetry; apply skipn1_tl).
    eapply wp1b_mono; [apply IH; [exact HT|exact BT|apply (enough_S _ _ _ _ Hf); rewrite R1; lia]|]. cbv beta.
    intros a u (Ea & g' & Mu & HU).
    rewrite R1 in Ea, Mu. split.
    + rewrite Ea. unfold line_of. rewrite Ek. subst x. exact (eq_sym (firstn_step (rem1 g) _ acc Eb')).
    + exists g'. split; [|exact HU]. rewrite Ek. eapply Mv_eq; [exact (Mv_trans _ _ _ _ _ _ _ M1 Mu)|reflexivity|apply Nh_raw].
Qed.
Lemma buf_content_line F acc g s2 : GS g s2 -> enough (nbz (rem1 g)) F ->
  wp1b (scan_block_scalar_content_line bops F acc)
      (fun a t2 => a = line_of (rem1 g) acc /\ exists g', Adv g (nbz (rem1 g)) g' /\ GS g' t2) s2.
Proof.
  intros HS HF. rewrite content_line_eq. apply wp1b_bind.
  eapply wp1b_mono; [apply buf_go; [exact HS|exact HF]|]. cbv beta. intros a t2 (j & g1 & Hj & Ea & Aj & HT & D).
  assert (R1 : rem1 g1 = skipn j (rem1 g)) by (destruct Aj as [R _]; exact R).
  apply wp1b_bind. apply wpr_buf_is_empty. destruct (Nat.eqb_spec (bl2 t2) 0) as [E0|NZ0].
  - eapply wp1b_mono; [apply buf_raw; [exact HT|exact E0|apply (enough_le _ _ _ _ HF); rewrite R1, (nbz_skipn _ _ Hj); lia]|]. cbv beta.
    intros a' u (Ea' & g' & Mu & HU).
    rewrite R1 in Ea', Mu. rewrite (nbz_skipn _ _ Hj) in Mu.
    split.
    + rewrite Ea', Ea. unfold line_of. rewrite (nbz_skipn _ _ Hj).
      replace (nbz (rem1 g)) with (j + (nbz (rem1 g) - j)) at 2 by lia.
      rewrite firstn_add, rev_app_distr, <- app_assoc. reflexivity.
    + exists g'. split; [|exact HU]. eapply Mv_eq; [exact (Mv_trans _ _ _ _ _ _ _ Aj Mu)|lia|lia].
  - apply wp1b_ret. destruct D as [D|D]; [contradiction|]. subst j. split; [exact Ea|]. exists g1. split; assumption.
Qed.

(* both sides together: same text appended, related states *)
Lemma rel_content_line F acc s1 s2 : (strict = true -> 2 * N0 + 6 <= F) -> SR s1 s2 ->
  rwp (scan_block_scalar_content_line sops F acc) (scan_block_scalar_content_line bops F acc) (rpost 0) s1 s2.
Proof.
  intros HF HS. apply rwp_bound. intros B.
  eapply rwp_decouple; [apply str_content_line| |].
  - cbv beta. intros a1 t1 [_ A1]. exact (Mv_len _ _ _ _ A1).
  - cbv beta. intros a1 t1 [Ea A1].
    assert (Hn : enough (nbz (rem1 s1)) F) by exact (enough_bound _ _ _ _ _ B HF (nbz_le _)).
    eapply wp1b_mono; [apply (buf_content_line F acc s1 s2 (conj HS B) Hn)|]. cbv beta. intros a2 t2 (Ea2 & g' & A2 & HT).
    split; [congruence|]. split; [exact (Mv_SR _ _ _ _ _ _ A1 A2 (GS_SR _ _ HT))|lia].
Qed.

(* ---------------- (2) skip_spaces_to ----------------
   Whatever [check_buf] and the fuel, the complete run consumes [jsp indent s] spaces. *)
Lemma jsp_stop_col indent g : (indent <= mcol g)%N -> jsp indent g = 0.
Proof. intros H. unfold jsp. replace (N.to_nat (indent - mcol g)) with 0 by lia. apply nsp_0. Qed.
Lemma jsp_stop_ch indent g : rn1 g 0 <> 32%N -> jsp indent g = 0.
Proof. intros H. unfold jsp. apply nsp_stop. exact H. Qed.
Lemma jsp_step indent g g1 : (mcol g < indent)%N -> rn1 g 0 = 32%N -> Adv g 1 g1 -> jsp indent g = S (jsp indent g1).
Proof.
  intros Hc E A. unfold jsp. rewrite (Mv_mcol _ _ _ _ A). destruct A as [R _]. rewrite R, <- skipn1_tl.
  replace (N.to_nat (indent - mcol g)) with (S (N.to_nat (indent - (mcol g + N.of_nat 1)))) by lia.
  apply nsp_step. exact E.
Qed.
Lemma jsp_le indent g : jsp indent g <= N.to_nat (indent - mcol g).
Proof. apply nsp_le. Qed.

(* string side: the look-ahead counter is never 0 when [check_buf] is asked, so the run is complete *)
Lemma str_sst indent cb : forall f s1, (cb = true -> lk1 s1 <> 0) ->
  wp1 (skip_spaces_to sops f indent cb) (fun _ t1 => Adv s1 (jsp indent s1) t1 /\ lk1 t1 = lk1 s1) s1.
Proof.
  induction f as [|f IH]; intros s1 Hlk; [exact I|]. cbn [skip_spaces_to].
  apply wp1_bind. apply wp1_mono with (P := fun e t => t = s1 /\ e = false).
  { destruct cb; [|apply wp1_ret; auto]. apply wpl_buf_is_empty. split; [reflexivity|]. apply Nat.eqb_neq. auto. }
  intros e t [-> ->]. apply wp1_bind. apply wpl_col. cbn [orb].
  destruct (N.ltb_spec (mcol s1) indent) as [Hlt|Hge]; cbn [negb].
  2:{ apply wp1_ret. rewrite (jsp_stop_col _ _ Hge). split; [apply Mv_refl|reflexivity]. }
  apply wp1_bind. apply wpl_peek. destruct (N.eqb_spec (rn1 s1 0) 32) as [E|NE].
  - apply wp1_bind. apply wpl_skip_blank. intros t1 A1 L1.
    eapply wp1_mono; [apply IH; rewrite L1; exact Hlk|]. cbv beta. intros _ u [Au Lu]. split; [|congruence].
    rewrite (jsp_step indent s1 t1 Hlt E A1). exact (Adv_trans _ _ _ _ _ A1 Au).
  - apply wp1_ret. rewrite (jsp_stop_ch _ _ NE). split; [apply Mv_refl|reflexivity].
Qed.

(* buffered side, no buffer check: enough characters are buffered for the whole run and [d] more *)
Lemma buf_sst_nocheck d indent : forall f g s2, GS g s2 -> N.to_nat (indent - mcol g) + d < bl2 s2 -> enough (jsp indent g) f ->
  wp1b (skip_spaces_to bops f indent false)
      (fun _ t2 => exists g', Adv g (jsp indent g) g' /\ GS g' t2 /\ d < bl2 t2) s2.
Proof.
  induction f as [|f IH]; intros g s2 HS HB Hf; [exact (wp1b_oof _ _ _ (enough_0 _ _ Hf))|]. cbn [skip_spaces_to].
  apply wp1b_bind. apply wp1b_ret. apply wp1b_bind. apply (wpr_col g); [exact HS|]. cbn [orb].
  destruct (N.ltb_spec (mcol g) indent) as [Hlt|Hge]; cbn [negb].
  2:{ apply wp1b_ret. exists g. rewrite (jsp_stop_col _ _ Hge). split; [apply Mv_refl|]. split; [exact HS|lia]. }
  apply wp1b_bind. apply (wpr_peek g); [exact HS|lia|]. destruct (N.eqb_spec (rn1 g 0) 32) as [E|NE].
  - apply wp1b_bind. apply (wpr_skip_blank g); [exact HS|lia|]. intros g1 t2 HT A1 BT.
    pose proof (jsp_step indent g g1 Hlt E A1) as Ej.
    eapply wp1b_mono; [apply IH; [exact HT| |apply (enough_S _ _ _ _ Hf); lia]|].
    + rewrite (Mv_mcol _ _ _ _ A1). lia.
    + cbv beta. intros _ u (g' & Au & HU & BU). exists g'. split; [|split; assumption].
      rewrite Ej. exact (Adv_trans _ _ _ _ _ A1 Au).
  - apply wp1b_ret. exists g. rewrite (jsp_stop_ch _ _ NE). split; [apply Mv_refl|]. split; [exact HS|lia].
Qed.

(* buffered side, with the buffer check: a prefix of the run, complete unless the buffer ran empty *)
Lemma buf_sst_check indent : forall f g s2, GS g s2 -> enough (jsp indent g) f ->
  wp1b (skip_spaces_to bops f indent true)
      (fun _ t2 => exists i g', i <= jsp indent g /\ Adv g i g' /\ GS g' t2 /\ bl2 t2 + i = bl2 s2 /\
                                (bl2 t2 = 0 \/ i = jsp indent g)) s2.
Proof.
  induction f as [|f IH]; intros g s2 HS Hf; [exact (wp1b_oof _ _ _ (enough_0 _ _ Hf))|]. cbn [skip_spaces_to].
  apply wp1b_bind. apply wpr_buf_is_empty. apply wp1b_bind. apply (wpr_col g); [exact HS|].
  destruct (Nat.eqb_spec (bl2 s2) 0) as [E0|NZ0]; cbn [orb].
  { apply wp1b_ret. exists 0, g. split; [lia|]. split; [apply Mv_refl|]. split; [exact HS|]. split; [lia|left; exact E0]. }
  destruct (N.ltb_spec (mcol g) indent) as [Hlt|Hge]; cbn [negb].
  2:{ apply wp1b_ret. exists 0, g. rewrite (jsp_stop_col _ _ Hge). split; [lia|]. split; [apply Mv_refl|]. split; [exact HS|].
      split; [lia|right; reflexivity]. }
  apply wp1b_bind. apply (wpr_peek g); [exact HS|lia|]. destruct (N.eqb_spec (rn1 g 0) 32) as [E|NE].
  - apply wp1b_bind. apply (wpr_skip_blank g); [exact HS|lia|]. intros g1 t2 HT A1 BT.
    pose proof (jsp_step indent g g1 Hlt E A1) as Ej.
    eapply wp1b_mono; [apply IH; [exact HT|apply (enough_S _ _ _ _ Hf); lia]|]. cbv beta. intros _ u (i & g' & Hi & Au & HU & BU & D).
    rewrite Ej. exists (S i), g'. split; [lia|]. split; [exact (Adv_trans _ _ _ _ _ A1 Au)|].
    split; [exact HU|]. split; [lia|]. destruct D as [D|D]; [left; exact D|right; lia].
  - apply wp1b_ret. exists 0, g. rewrite (jsp_stop_ch _ _ NE). split; [lia|]. split; [apply Mv_refl|]. split; [exact HS|].
    split; [lia|right; reflexivity].
Qed.

(* (3) the indentation phase of skip_block_scalar_indent: narrow / wide *)
(* string side, wide loop: after [look 128] the counter is not 0, so one round does the whole run; a further round
   (entered when the column is beyond [indent] in front of a space) consumes nothing *)
Lemma str_wide F indent : forall f s1, wp1 (bs_wide sops F indent f) (fun _ t1 => Adv s1 (jsp indent s1) t1) s1.
Proof.
  induction f as [|f IH]; intros s1; [exact I|]. cbn [bs_wide]. change (bufmaxlen sops) with 128.
  apply wp1_bind. apply wpl_look. intros t1 M1 L1.
  apply wp1_bind. eapply wp1_mono; [apply str_sst; intros _; lia|]. cbv beta. intros _ u [Au Lu].
  rewrite (jsp_Mv0 indent _ _ M1) in Au.
  assert (A : Adv s1 (jsp indent s1) u) by exact (Adv_trans _ _ _ _ _ M1 Au).
  apply wp1_bind. apply wpl_col. apply wp1_bind. apply wpl_buf_is_empty.
  destruct (Nat.eqb_spec (lk1 u) 0) as [E0|_]; [lia|].
  apply wp1_bind. apply wpl_peek.
  match goal with |- wp1 (if ?b then _ else _) _ _ => destruct b end; [apply wp1_ret; exact A|].
  eapply wp1_mono; [apply IH|]. cbv beta. intros _ v Av.
  rewrite (jsp_Adv indent _ _ _ A) in Av by lia. rewrite Nat.sub_diag in Av.
  eapply Mv_eq; [exact (Adv_trans _ _ _ _ _ A Av)|lia|lia].
Qed.
Lemma str_spp F indent s1 : wp1 (bs_spp sops F indent) (fun _ t1 => Adv s1 (jsp indent s1) t1) s1.
Proof.
  unfold bs_spp. change (bufmaxlen sops) with 128. destruct (indent <? N.of_nat (128 - 2))%N.
  - apply wp1_bind. apply wpl_look. intros t1 M1 L1.
    eapply wp1_mono; [apply str_sst; discriminate|]. cbv beta. intros _ u [Au _].
    rewrite (jsp_Mv0 indent _ _ M1) in Au. exact (Adv_trans _ _ _ _ _ M1 Au).
  - apply wp1_bind. eapply wp1_mono; [apply str_wide|]. cbv beta. intros _ t1 A1.
    apply wpl_look. intros u Mu _. eapply Mv_eq; [exact (Mv_trans _ _ _ _ _ _ _ A1 Mu)|lia|lia].
Qed.

(* buffered side, wide loop: every round refills the buffer and continues the run where the last one stopped *)
Lemma buf_wide F indent : forall f g s2, GS g s2 -> P0 indent g -> enough (jsp indent g) F -> enough (jsp indent g) f ->
  wp1b (bs_wide bops F indent f) (fun _ t2 => exists g', Adv g (jsp indent g) g' /\ GS g' t2) s2.
Proof.
  induction f as [|f IH]; intros g s2 HS HP HF Hf; [exact (wp1b_oof _ _ _ (enough_0 _ _ Hf))|]. cbn [bs_wide]. change (bufmaxlen bops) with cap.
  apply wp1b_bind. apply (wpr_look cap g); [exact HS|lia|]. intros t2 HT BT _.
  apply wp1b_bind. eapply wp1b_mono; [apply buf_sst_check; [exact HT|exact HF]|]. cbv beta.
  intros _ u2 (i & g1 & Hi & Ai & HU & BU & D).
  apply wp1b_bind. apply (wpr_col g1); [exact HU|]. apply wp1b_bind. apply wpr_buf_is_empty.
  destruct (Nat.eqb_spec (bl2 u2) 0) as [E0|NZ0].
  - (* the buffer ran empty: at least [cap] spaces were consumed in this round *)
    apply wp1b_bind. apply wp1b_ret. cbn [negb andb]. rewrite orb_false_r.
    destruct (N.eqb_spec (mcol g1) indent) as [Ec|NEc].
    + apply wp1b_ret. exists g1. split; [|exact HU].
      pose proof (jsp_le indent g) as Hle. rewrite (Mv_mcol _ _ _ _ Ai) in Ec.
      eapply Mv_eq; [exact Ai|lia|lia].
    + assert (Hi1 : 1 <= i) by lia.
      assert (HP1 : P0 indent g1).
      { left. rewrite (Mv_mcol _ _ _ _ Ai). pose proof (jsp_le indent g) as Hle.
        destruct HP as [H|H]; [lia|]. rewrite (jsp_stop_ch _ _ H) in Hi. lia. }
      pose proof (jsp_Adv indent _ _ _ Ai Hi) as Ej.
      eapply wp1b_mono; [apply IH; [exact HU|exact HP1|apply (enough_le _ _ _ _ HF); lia|apply (enough_S _ _ _ _ Hf); lia]|]. cbv beta.
        intros _ v2 (g' & Av & HV). exists g'. split; [|exact HV].
      rewrite Ej in Av. eapply Mv_eq; [exact (Adv_trans _ _ _ _ _ Ai Av)|lia|lia].
  - destruct D as [D|D]; [contradiction|]. subst i.
    apply wp1b_bind. apply (wpr_peek g1); [exact HU|lia|].
    (* a complete run ends on the target column or in front of a non-space: the loop stops *)
    destruct (jsp_complete indent g g1 HP Ai) as [Hc|Hc].
    + apply N.eqb_eq in Hc. rewrite Hc. cbn [orb]. apply wp1b_ret. exists g1. split; assumption.
    + apply N.eqb_neq in Hc. rewrite Hc. cbn [negb andb]. rewrite orb_true_r. apply wp1b_ret. exists g1. split; assumption.
Qed.
(* narrow path: [look cap] buffers [cap] characters, the run is at most [indent <= cap - 3] long *)
Lemma buf_spp F indent g s2 : GS g s2 -> P0 indent g -> enough (jsp indent g) F ->
  wp1b (bs_spp bops F indent) (fun _ t2 => exists g', Adv g (jsp indent g) g' /\ GS g' t2 /\ 2 <= bl2 t2) s2.
Proof.
  intros HS HP HF. unfold bs_spp. change (bufmaxlen bops) with cap.
  destruct (N.ltb_spec indent (N.of_nat (cap - 2))) as [Hn|Hw].
  - apply wp1b_bind. apply (wpr_look cap g); [exact HS|lia|]. intros t2 HT BT _.
    eapply wp1b_mono; [apply (buf_sst_nocheck 2 indent F g t2 HT); [lia|exact HF]|]. cbv beta.
    intros _ u (g' & Au & HU & BU). exists g'. split; [exact Au|]. split; [exact HU|lia].
  - apply wp1b_bind. eapply wp1b_mono; [apply buf_wide; [exact HS|exact HP|exact HF|exact HF]|]. cbv beta. intros _ t2 (g' & Ag & HT).
    apply (wpr_look 2 g'); [exact HT|lia|]. intros u HU BU _. exists g'. split; [exact Ag|]. split; assumption.
Qed.

(* both sides together: the same spaces skipped, two characters buffered afterwards *)
Lemma rel_spp F indent s1 s2 : (strict = true -> 2 * N0 + 6 <= F) -> SR s1 s2 -> P0 indent s1 ->
  rwp (bs_spp sops F indent) (bs_spp bops F indent) (rpost 2) s1 s2.
Proof.
  intros HF HS HP. apply rwp_bound. intros B.
  eapply rwp_decouple; [apply str_spp| |].
  - cbv beta. intros [] t1 A1. exact (Mv_len _ _ _ _ A1).
  - cbv beta. intros [] t1 A1.
    assert (Hn : enough (jsp indent s1) F) by exact (enough_bound _ _ _ _ _ B HF (jsp_le_len _ _)).
    eapply wp1b_mono; [apply (buf_spp F indent s1 s2 (conj HS B) HP Hn)|]. cbv beta. intros [] t2 (g' & A2 & HT & BT).
    split; [reflexivity|]. split; [exact (Mv_SR _ _ _ _ _ _ A1 A2 (GS_SR _ _ HT))|exact BT].
Qed.

(* (4) skip_block_scalar_indent: the outer loop is in lockstep *)
Lemma rwp_col (Q : N -> st1 -> N -> st2 -> Prop) s1 s2 :
  SR s1 s2 -> Q (mcol s1) s1 (mcol s1) s2 -> rwp (@col strin) (@col bufin) Q s1 s2.
Proof. intros HS HQ. unfold col. apply rwp_gets_skel; [exact HS|rel_eq|exact HQ]. Qed.

Lemma rel_skip_bsi F indent : (strict = true -> 2 * N0 + 6 <= F) -> forall fuel breaks s1 s2, SR s1 s2 -> P0 indent s1 ->
  rwp (skip_block_scalar_indent sops F fuel indent breaks) (skip_block_scalar_indent bops F fuel indent breaks)
      (rpost 2) s1 s2.
Proof.
  intros HF. induction fuel as [|fuel IH]; intros breaks s1 s2 HS HP; [apply rwp_oof_l|]. rewrite !sbsi_eq.
  apply rwp_bind. change (bufmaxlen sops) with 128. change (bufmaxlen bops) with cap.
  destruct (Nat.ltb 128 2); [apply rwp_panic_l|]. destruct (Nat.ltb cap 2); [apply rwp_panic_r|]. apply rwp_ret.
  eapply rwp_bind_rpost; [apply rel_spp; [exact HF|exact HS|exact HP]|]. intros [] u1 u2 HU BU.
  apply rwp_bind. apply (rwp_next_is cap cap_ge); [exact HU|lia|].
  destruct (is_break (rn1 u1 0)).
  - apply rwp_bind. apply (rwp_post_l strict N0 _ _ (fun _ t1 => mcol t1 = 0%N)); [intros [] t1 E; exact (skip_break_col0 _ _ E)|].
    apply (rwp_skip_break cap cap_ge); [exact HU|exact BU|]. intros v1 v2 HV _ _ _ C0.
    apply IH; [exact HV|left; rewrite C0; lia].
  - apply rwp_ret_rpost; [exact HU|exact BU].
Qed.

(* (5) skip_first_line_indent: lockstep *)
Lemma rel_sfl : forall f s1 s2, SR s1 s2 -> rwp (bs_sfl sops f) (bs_sfl bops f) (rpost 1) s1 s2.
Proof.
  induction f as [|f IH]; intros s1 s2 HS; [apply rwp_oof_l|]. cbn [bs_sfl].
  apply rwp_bind. apply (rwp_look_ch cap cap_ge); [exact HS|]. intros u1 u2 HU _ _ BU _.
  destruct (rn1 u1 0 =? 32)%N.
  - apply rwp_bind. apply (rwp_skip_blank cap cap_ge); [exact HU|exact BU|]. intros v1 v2 HV _ _. apply IH. exact HV.
  - apply rwp_ret_rpost; [exact HU|exact BU].
Qed.
Lemma rel_sfli F : forall fuel maxi breaks s1 s2, SR s1 s2 ->
  rwp (skip_first_line_indent sops F fuel maxi breaks) (skip_first_line_indent bops F fuel maxi breaks) (rpost 1) s1 s2.
Proof.
  induction fuel as [|fuel IH]; intros maxi breaks s1 s2 HS; [apply rwp_oof_l|]. rewrite !sfli_eq.
  eapply rwp_bind_rpost; [apply rel_sfl; exact HS|]. intros [] u1 u2 HU BU.
  apply rwp_bind. apply rwp_col; [exact HU|].
  apply rwp_bind. apply (rwp_next_is cap cap_ge); [exact HU|exact BU|].
  destruct (is_break (rn1 u1 0)).
  - apply rwp_bind. apply (rwp_look cap cap_ge); [exact HU|lia|]. intros v1 v2 HV _ _ BV _.
    apply rwp_bind. apply (rwp_skip_break cap cap_ge); [exact HV|exact BV|]. intros w1 w2 HW _ _ _.
    apply IH. exact HW.
  - apply rwp_ret_rpost; [exact HU|exact BU].
Qed.

(* (6) scan_block_scalar *)
Theorem scan_block_scalar_ok : rel_scan_block_scalar cap strict N0.
Proof using cap_ge.
  unfold rel_scan_block_scalar. intros F literal s1 s2 HFu HS HB. unfold scan_block_scalar. cbv zeta.
  apply rwp_bind. apply rwp_mark; [exact HS|]. cbv beta.
  apply rwp_bind. apply (rwp_skip_non_blank cap cap_ge); [exact HS|exact HB|]. intros a1 a2 HA _ _.
  apply rwp_bind. apply rwp_unroll_non_block_indents; [exact HA|]. intros b1 b2 HBb _ _.
  apply rwp_bind. apply (rwp_look_ch cap cap_ge); [exact HBb|]. intros c1 c2 HC _ _ BC _.
  (* the header: chomping and indentation indicators, in either order *)
  eapply rwp_bind_rpost with (k := 0).
  { set (c := rn1 c1 0). destruct ((c =? 43) || (c =? 45))%N.
    - apply rwp_bind. apply (rwp_skip_non_blank cap cap_ge); [exact HC|exact BC|]. intros d1 d2 HD _ _.
      apply rwp_bind. apply (rwp_look cap cap_ge); [exact HD|lia|]. intros e1 e2 HE _ _ BE _.
      apply rwp_bind. apply (rwp_peek cap cap_ge); [exact HE|exact BE|].
      destruct (is_digit (rn1 e1 0)); [|apply rwp_ret_rpost; [exact HE|lia]].
      destruct (rn1 e1 0 =? 48)%N; [apply rwp_fail; reflexivity|].
      apply rwp_bind. apply (rwp_skip_non_blank cap cap_ge); [exact HE|exact BE|]. intros f1 f2 HF _ _.
      apply rwp_ret_rpost; [exact HF|lia].
    - destruct (is_digit c); [|apply rwp_ret_rpost; [exact HC|lia]].
      destruct (c =? 48)%N; [apply rwp_fail; reflexivity|].
      apply rwp_bind. apply (rwp_skip_non_blank cap cap_ge); [exact HC|exact BC|]. intros d1 d2 HD _ _.
      apply rwp_bind. apply (rwp_look cap cap_ge); [exact HD|lia|]. intros e1 e2 HE _ _ BE _.
      apply rwp_bind. apply (rwp_peek cap cap_ge); [exact HE|exact BE|].
      destruct ((rn1 e1 0 =? 43) || (rn1 e1 0 =? 45))%N; [|apply rwp_ret_rpost; [exact HE|lia]].
      apply rwp_bind. apply (rwp_skip_non_blank cap cap_ge); [exact HE|exact BE|]. intros f1 f2 HF _ _.
      apply rwp_ret_rpost; [exact HF|lia]. }
  intros [chomp increment] g1 g2 HG _. cbv beta iota.
  (* the rest of the header line *)
  eapply rwp_bind_rpost; [apply (skip_ws_to_eol_ok cap cap_ge); exact HG|]. intros tw h1 h2 HH _.
  apply rwp_bind. apply (rwp_look cap cap_ge); [exact HH|lia|]. intros i1 i2 HI _ _ BI _.
  apply rwp_bind. apply (rwp_peek cap cap_ge); [exact HI|exact BI|].
  destruct (is_breakz (rn1 i1 0)) eqn:Ebz; cbn [negb]; [|apply rwp_fail; reflexivity].
  (* after the header line: at column 0 (a break was consumed) or at the end of the input *)
  apply rwp_bind_e.
  eapply rwp_mono with (Q := Qe (fun (_ : N) t1 t2 => SR t1 t2 /\ (mcol t1 = 0%N \/ rn1 t1 0 = 0%N))).
  { destruct (is_break (rn1 i1 0)) eqn:Ebr.
    - apply rwp_bind. apply (rwp_look cap cap_ge); [exact HI|lia|]. intros j1 j2 HJ _ _ BJ _.
      apply rwp_bind. apply (rwp_post_l strict N0 _ _ (fun _ t1 => mcol t1 = 0%N)); [intros [] t1 E; exact (skip_break_col0 _ _ E)|].
      apply (rwp_skip_break cap cap_ge); [exact HJ|exact BJ|]. intros k1 k2 HK _ _ _ C0.
      apply rwp_ret. split; [reflexivity|]. split; [exact HK|left; exact C0].
    - apply rwp_ret. split; [reflexivity|]. split; [exact HI|right].
      unfold is_breakz in Ebz. rewrite Ebr in Ebz. cbn [orb] in Ebz. apply N.eqb_eq. exact Ebz. }
  intros cbreak j1 cbreak' j2 (<- & HJ & DJ). split; [reflexivity|].
  apply rwp_bind. apply (rwp_look_ch cap cap_ge); [exact HJ|]. intros k1 k2 HK RK EK BK _.
  assert (HPK : forall ind, P0 ind k1).
  { intros ind. destruct DJ as [H|H].
    - left. rewrite (erase_mark k1 _ EK). change (sc_mark (erase j1)) with (sc_mark j1). rewrite H. lia.
    - right. rewrite (rn1_eq _ _ 0 RK), H. discriminate. }
  destruct (rn1 k1 0 =? 9)%N; [apply rwp_fail; reflexivity|].
  apply rwp_bind. apply rwp_get. cbv beta. sr_sync HK.
  (* the indentation of the first content line *)
  match goal with |- rwp (bind (if (?i =? 0)%N then _ else _) _) _ _ _ _ => set (indent0 := i) end.
  eapply rwp_bind_rpost with (k := 1).
  { destruct (indent0 =? 0)%N.
    - eapply rwp_bind_rpost; [apply rel_sfli; exact HK|]. intros r l1 l2 HL BL. apply rwp_ret_rpost; [exact HL|exact BL].
    - eapply rwp_bind_rpost; [apply rel_skip_bsi; [exact HFu|exact HK|apply HPK]|]. intros r l1 l2 HL BL. apply rwp_ret_rpost; [exact HL|lia]. }
  intros [indent tbreaks] l1 l2 HL BL. cbv beta iota.
  apply rwp_bind. apply (rwp_next_is cap cap_ge); [exact HL|exact BL|]. cbv beta.
  apply rwp_bind. apply rwp_get. cbv beta. sr_sync HL.
  destruct (is_z (rn1 l1 0)).
  { apply rwp_ret_rpost; [exact HL|lia]. }
  (* "wrongly indented" check *)
  eapply rwp_bind_rpost with (k := 1).
  { match goal with |- rwp (if ?b then _ else _) _ _ _ _ => destruct b end; [|apply rwp_ret_rpost; [exact HL|exact BL]].
    apply rwp_bind. apply (rwp_look cap cap_ge); [exact HL|lia|]. intros m1 m2 HM _ _ BM BM'.
    apply rwp_bind. apply (rwp_next_is_document_indicator cap cap_ge); [exact HM|exact BM|].
    apply rwp_ret_rpost; [exact HM|lia]. }
  intros wrong m1 m2 HM BM. destruct wrong; [apply rwp_fail; reflexivity|].
  apply rwp_bind. apply rwp_get. cbv beta. sr_sync HM.
  (* the main loop: one content line per round; one character is buffered at the head of the loop *)
  eapply rwp_bind_rpost with (k := 1).
  { match goal with |- rwp (?g1 F [] 0%N tbreaks false) (?g2 F [] 0%N tbreaks false) _ _ _ =>
      assert (Hgo : forall f acc lb tb ldb u1 u2, SR u1 u2 -> 1 <= bl2 u2 ->
                      rwp (g1 f acc lb tb ldb) (g2 f acc lb tb ldb) (rpost 1) u1 u2) end.
    { induction f as [|f IH]; intros acc lb tb ldb u1 u2 HU BU; [apply rwp_oof_l|]. lazy beta iota.
      apply rwp_bind. apply rwp_col; [exact HU|]. cbv beta.
      apply rwp_bind. apply (rwp_next_is cap cap_ge); [exact HU|exact BU|]. cbv beta.
      match goal with |- rwp (if ?b then _ else _) _ _ _ _ => destruct b end; [apply rwp_ret_rpost; [exact HU|exact BU]|].
      eapply rwp_bind_rpost with (k := 1).
      { destruct (indent =? 0)%N; [|apply rwp_ret_rpost; [exact HU|exact BU]].
        apply rwp_bind. apply (rwp_look cap cap_ge); [exact HU|lia|]. intros v1 v2 HV _ _ BV _.
        apply (rwp_next_is_document_indicator cap cap_ge); [exact HV|exact BV|].
        split; [reflexivity|]. split; [exact HV|lia]. }
      intros de v1 v2 HV BV. destruct de; [apply rwp_ret_rpost; [exact HV|exact BV]|].
      apply rwp_bind. apply (rwp_next_is cap cap_ge); [exact HV|exact BV|]. cbv beta.
      eapply rwp_bind_rpost; [apply rel_content_line; [exact HFu|exact HV]|]. intros acc1 w1 w2 HW _.
      apply rwp_bind. apply (rwp_look cap cap_ge); [exact HW|lia|]. intros x1 x2 HX _ _ BX _.
      apply rwp_bind. apply (rwp_next_is cap cap_ge); [exact HX|lia|]. cbv beta.
      destruct (is_z (rn1 x1 0)); [apply rwp_ret_rpost; [exact HX|lia]|].
      apply rwp_bind. apply (rwp_post_l strict N0 _ _ (fun _ t1 => mcol t1 = 0%N)); [intros [] t1 E; exact (skip_break_col0 _ _ E)|].
      apply (rwp_skip_break cap cap_ge); [exact HX|exact BX|]. intros y1 y2 HY _ _ _ C0.
      eapply rwp_bind_rpost; [apply rel_skip_bsi; [exact HFu|exact HY|left; rewrite C0; lia]|]. intros tb1 z1 z2 HZ BZ.
      apply IH; [exact HZ|lia]. }
    apply Hgo; assumption. }
  intros [[acc lb] tb] n1 n2 HN BN. cbv beta iota.
  apply rwp_bind. apply (rwp_next_is cap cap_ge); [exact HN|exact BN|]. cbv beta.
  apply rwp_bind. apply rwp_col; [exact HN|]. cbv beta.
  apply rwp_bind. apply rwp_mark; [exact HN|]. cbv beta.
  apply rwp_ret_rpost; [exact HN|lia].
Qed.

End RelBlock.

Check scan_block_scalar_ok.
Print Assumptions scan_block_scalar_ok.
