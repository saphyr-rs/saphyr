(* C07 — what the mapping clause of the specification (fold with map_insert) means, in terms of lookups:
   keys of a loaded mapping are pairwise distinct, every source key is present, nothing else is,
   and the value found under a key is the value of its LAST occurrence ("the later value wins"). *)
From Coq Require Import List NArith ZArith Bool.
Import ListNotations.
Require Import Parser Resolver Loader LinkedMap Nodes InsertTheory NodesProofs BuildDocs.

Lemma yaml_eqb_refl a : yaml_eqb a a = true.
Proof. rewrite yaml_eqb_embed. apply r_eqb_refl. Qed.
Lemma yaml_eqb_sym a b : yaml_eqb a b = yaml_eqb b a.
Proof. rewrite !yaml_eqb_embed. apply r_eqb_sym. Qed.
Lemma yaml_eqb_trans a b c : yaml_eqb a b = true -> yaml_eqb b c = true -> yaml_eqb a c = true.
Proof. rewrite !yaml_eqb_embed. apply r_eqb_trans. Qed.

Global Hint Resolve yaml_eqb_refl yaml_eqb_sym yaml_eqb_trans : eqv.

Lemma map_insert_lm k v l : map_insert k v l = lm_insert yaml_eqb k v l.
Proof. reflexivity. Qed.

(* the entries of a mapping node, built in order (keys before values, anchors threaded through) *)
Fixpoint build_entries (m : amap) (es : list (etree * etree)) : list (yaml * yaml) * amap :=
  match es with
  | [] => ([], m)
  | (k, v) :: r =>
      let '(ky, m1) := build m k in let '(vy, m2) := build m1 v in
      let '(ps, m3) := build_entries m2 r in ((ky, vy) :: ps, m3)
  end.

Lemma build_pairs_entries es : forall m acc,
  build_pairs build m es acc =
  (fold_left (fun a p => lm_ins yaml_eqb p a) (fst (build_entries m es)) acc, snd (build_entries m es)).
Proof.
  induction es as [|[k v] r IH]; intros m acc; [reflexivity|].
  cbn [build_pairs build_entries]. destruct (build m k) as [ky m1]. destruct (build m1 v) as [vy m2].
  rewrite IH. destruct (build_entries m2 r) as [ps m3]. reflexivity.
Qed.

Theorem build_map_collect a tg es m :
  fst (build m (TMap a tg es)) = YMap (lm_collect yaml_eqb (fst (build_entries m es))).
Proof.
  cbn [build]. rewrite build_pairs_entries. reflexivity.
Qed.

Section Collected.
  Variable l : list (yaml * yaml).
  Let c := lm_collect yaml_eqb l.

  Theorem collected_keys_distinct : lm_nodupb yaml_eqb c = true.
  Proof. apply nodupb_F; eauto with eqv. Qed.

  Theorem collected_keys_are_source_keys k : lm_mem yaml_eqb k c = lm_mem yaml_eqb k l.
  Proof. apply mem_F; eauto with eqv. Qed.

  Theorem later_value_wins k : lm_get yaml_eqb k c = lm_get yaml_eqb k (rev l).
  Proof. apply assoc_F; eauto with eqv. Qed.

  (* no duplicate key in the source: the mapping IS the source list, order included *)
  Theorem distinct_keys_kept_in_order : lm_nodupb yaml_eqb l = true -> c = l.
  Proof. apply F_nodup_id; eauto with eqv. Qed.

  (* in general: the entries whose key does not occur again later, in source order (up to the key object) *)
  Theorem collected_is_dedup : leq yaml yaml_eqb c (lm_dedup yaml_eqb l).
  Proof. apply F_G; eauto with eqv. Qed.
End Collected.
