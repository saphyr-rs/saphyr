(* C04 / C05 in document context: a scalar of any kind as the whole document, as the only entry of a top-level block sequence
   or as the value of the only pair of a top-level block mapping, text -> tokens -> events.  What is asked of the kind of
   scalar is stated once ([fetches]: what the dispatch of fetch_next_token does at its first character, from any state in
   normal form); the places are reached by the skeleton of Proofs/ScanBlockProofs.v, the end of the input is [end_unit]
   (Proofs/ScalarContext.v).  Second half of the file: the instance for quoted scalars (C04), on top of
   [scan_flow_scalar_ws] (Proofs/ScalarContextQuoted.v). *)
From Coq Require Import List NArith ZArith Bool Arith Lia.
Import ListNotations.
Require Import Parser SBase SPrim SFetch Pipe Drivers TokenGrammar FlowText ScanFlowProofs ScanBlockProofs ScanFrame TokenGrammarProofs TokenStreamProofs FlowFold FlowScalarProofs PlainScalarProofs ScalarContext ScalarContextQuoted ScanSimpl.
Open Scope N_scope.
Open Scope mon_scope.

#[local] Arguments N.eqb : simpl nomatch.
#[local] Arguments Nat.leb : simpl nomatch.
#[local] Arguments Nat.ltb : simpl nomatch.

Definition ends_with (F : nat) (s : sc strin) (T : list tok) : Prop :=
  exists toks, map snd toks = T /\
    forall fuel acc, (length toks < fuel)%nat -> scan_all str_ops F fuel s acc = (rev acc ++ toks, SEnded).

(* what is asked of a kind of scalar *)
(* From a state in normal form that stands at [txt], under the condition [side] on indentation, stack and column: the
   dispatch queues the one token [t] behind the key it has saved and leaves [rest]; the stack is unchanged or has lost its
   non-block records.  [4 <= l]: the lookahead counter after the dispatcher's look(4), so that the document-marker tests
   at column 0 pass their assert_buflen.  [ind = column -> inds <> []]: save_simple_key then reads the last record of
   the indent stack, and panics (site 114) on an empty one. *)
Definition fetches (F : nat) (txt rest : list N) (t : tok) (side : Z -> list indent_rec -> N -> Prop) : Prop :=
  forall l mk q adj ska k ind inds tp lws,
    (4 <= l)%nat -> side ind inds (m_col mk) -> ((ind =? Z.of_N (m_col mk))%Z = true -> inds <> []) ->
    exists l' mk' sp adj' ska' lws' ind' inds',
      fnt_rest F (mkb txt l mk q adj ska k ind inds tp false lws)
      = Ok (tt, mkb rest l' mk' (q ++ [(sp, t)]) adj' ska' (saved ska k ind inds tp q mk) ind' inds' tp false lws')
      /\ nbrel (ind, inds) (ind', inds').

(* where a node starts *)
(* The next fetch of [s] is the dispatch on [txt] from a state in normal form: nothing queued, no key possible, none required
   here; [P] is what is known of the mark. *)
Definition before_node (F : nat) (s : sc strin) (txt : list N) (ind : Z) (inds : list indent_rec) (P : marker -> Prop) : Prop :=
  canon s /\ grounded ind inds /\
  exists l mk adj ska k tp lws,
    P mk /\ (4 <= l)%nat /\ sk_possible k = false /\ req ind inds (m_col mk) = false /\
    fetch_next_token str_ops F s = fnt_rest F (mkb txt l mk [] adj ska k ind inds tp false lws).

Lemma tok_before_node F s x cs c cols :
  at_tok s (x :: cs) c cols -> (fst (stk cols) < Z.of_nat c)%Z -> first_ok x -> (x =? 0) = false -> (1 <= F)%nat ->
  before_node F s (x :: cs) (fst (stk cols)) (snd (stk cols)) (fun mk => m_col mk = N.of_nat c).
Proof.
  intros Hat Hlt Hfo Hnz HF.
  assert (Hbase : base_le cols (Z.of_nat c)) by (destruct cols as [|t0 r]; cbn in *; lia).
  destruct (arrive_tok F s x cs c [] cols Hat Hfo Hnz ltac:(constructor) Hbase HF)
    as (Hcanon & l & i & ln & adj & k & tp & lws & Hl & Hk & Hf).
  split; [exact Hcanon|]. split; [apply grounded_stk, Forall_forall; auto|].
  exists l, (mkm i ln (N.of_nat c)), adj, true, k, tp, lws. repeat split; try assumption.
  unfold req. cbn [m_col mkm]. replace (fst (stk cols) =? Z.of_N (N.of_nat c))%Z with false; [reflexivity|].
  symmetry. apply Z.eqb_neq. lia.
Qed.

Lemma below_before_node F s x cs top rest :
  at_below s (32 :: x :: cs) (top :: rest) -> first_ok x -> (x =? 0) = false -> (2 <= F)%nat ->
  before_node F s (x :: cs) (Z.of_N top + 1)%Z (nbl (Z.of_N top) :: snd (stk (top :: rest))) (fun mk => top < m_col mk).
Proof.
  intros Hat Hfo Hnz HF.
  destruct (arrive_blank F s x cs (top :: rest) Hat Hfo Hnz HF)
    as (Hcanon & l & i & ln & c1 & adj & ska & k & tp & top' & rest' & [= <- <-] & Hc1 & Hl & Hk & Hf).
  split; [exact Hcanon|]. split; [apply grounded_below|].
  exists l, (mkm i ln c1), adj, ska, k, tp, false. repeat split; try assumption.
  unfold req. cbn [nbl in_needs_block_end]. apply andb_false_r.
Qed.

(* a scalar that ends the input *)
Lemma scalar_end F s txt ind inds P t side :
  before_node F s txt ind inds P -> (3 <= F)%nat -> fetches F txt [] t side ->
  (forall mk, P mk -> side ind inds (m_col mk)) -> t <> TStreamEnd ->
  ends_with F s (t :: repeat TBlockEnd (nbe inds) ++ [TStreamEnd]).
Proof.
  intros (Hcanon & Hg & l & mk & adj & ska & k & tp & lws & HP & Hl & Hk & Hr & Hf) HF Hfetch Hside Ht.
  destruct (Hfetch l mk [] adj ska k ind inds tp lws Hl (Hside mk HP) (grounded_req ind inds _ Hg))
    as (l2 & mk2 & sp & adj2 & ska2 & lws2 & ind2 & inds2 & E & Hnb).
  rewrite E in Hf. cbn [app] in Hf.
  destruct (nbrel_grounded _ _ _ _ Hg Hnb) as [Hg2 Hn2].
  destruct (end_unit F s l2 mk2 (sp, t) adj2 ska2 _ ind2 inds2 tp lws2 HF Hcanon Hf Ht (saved_free _ _ _ _ _ _ _ Hk Hr) Hg2)
    as (toks & Hm & Hscan).
  exists toks. split; [|exact Hscan]. rewrite Hm, Hn2. reflexivity.
Qed.

(* the whole scanner *)
Definition start_state (txt : list N) : sc strin := mkb txt 1 (mkm 0 1 0) [] 0 true dummy_key (-1)%Z [] 1 false true.
Lemma start_at_tok txt : at_tok (start_state txt) txt 0 [].
Proof. exists 1%nat, 0, 1, 0, dummy_key, 1, true. split; [reflexivity|left; reflexivity]. Qed.

(* the stream start, a prefix of units handed out ([delivers]), then a state from which the scanner ends with T;
   2 * |txt| + 10 is the character fuel F of [Drivers.scan_str], 4 * F + 20 (in the proof) its number of token steps *)
Lemma scan_str_units txt pre s' P T X :
  delivers (2 * length txt + 10) (start_state txt) pre s' -> map snd pre = P -> ends_with (2 * length txt + 10) s' T ->
  (length P + length T <= 2 * length txt + 10)%nat -> TStreamStart :: P ++ T = X ->
  exists toks, scan_str txt = (toks, SEnded) /\ map snd toks = X.
Proof.
  intros Hd <- (toks2 & Hm2 & Hscan) Hlen <-. rewrite map_length in Hlen.
  unfold scan_str. set (F := (2 * length txt + 10)%nat) in *.
  assert (Hl2 : length toks2 = length T) by (rewrite <- Hm2, map_length; reflexivity).
  assert (Etot : exists f2, (4 * F + 20 = S (length pre + f2) /\ length toks2 < f2)%nat).
  { exists (4 * F + 19 - length pre)%nat. unfold token in *. lia. }
  destruct Etot as (f2 & -> & Hf2).
  rewrite scan_all_S, (first_token F txt) by (unfold F; lia). cbv beta iota.
  change (mkst txt 1 (mk1 0) [] 0 true [dummy_key] 0 1 false true []) with (start_state txt).
  rewrite Hd, (Hscan f2 _ Hf2).
  eexists. split; [reflexivity|].
  rewrite rev_app_distr, rev_involutive. cbn [rev app]. cbn [map snd]. f_equal. rewrite map_app. f_equal. exact Hm2.
Qed.

(* where the scalar stands: it is the document; the only entry of a block sequence at column 0; the value of the only pair
   of a block mapping at column 0 whose key is a one-word plain scalar *)
Inductive place : Type := Top | Entry | Value (kw : list N).
Definition place_ok (p : place) : Prop := match p with Value kw => key_ok kw = true | _ => True end.
Definition in_place (p : place) (txt : list N) : list N :=
  match p with Top => txt | Entry => 45 :: 32 :: txt | Value kw => kw ++ 58 :: 32 :: txt end.
Definition around (p : place) (T : list tok) : list tok :=
  match p with
  | Top => T
  | Entry => TBlockSequenceStart :: TBlockEntry :: T ++ [TBlockEnd]
  | Value kw => TBlockMappingStart :: TKey :: TScalar Plain kw :: TValue :: T ++ [TBlockEnd]
  end.
(* the condition of the scalar there; behind "key: " the stack still carries the one-column raise *)
Definition side_at (side : Z -> list indent_rec -> N -> Prop) (p : place) : Prop :=
  match p with
  | Top => side (fst (stk [])) (snd (stk [])) 0
  | Entry => side (fst (stk [0])) (snd (stk [0])) 2
  | Value _ => forall c, 0 < c -> side 1%Z (nbl 0 :: snd (stk [0])) c
  end.
(* a first character at which a node can start *)
Definition node_head (x : N) : Prop := first_ok x /\ (x =? 0) = false /\ is_break x = false /\ is_flow x = false.

Theorem ctx_scalar_end p x cs t side :
  place_ok p -> node_head x -> t <> TStreamEnd ->
  fetches (2 * length (in_place p (x :: cs)) + 10) (x :: cs) [] t side -> side_at side p ->
  exists toks, scan_str (in_place p (x :: cs)) = (toks, SEnded) /\ map snd toks = wrap false false (around p [t]).
Proof.
  intros Hp (Hfo & Hnz & Hbr & Hfl) Ht Hfetch Hside.
  set (txt := in_place p (x :: cs)) in *. set (F := (2 * length txt + 10)%nat) in *.
  pose proof (start_at_tok txt) as Hat. unfold txt in Hat at 2.
  destruct p as [| |kw]; cbn [in_place place_ok side_at] in *.
  - pose proof (scalar_end F _ _ _ _ _ t side (tok_before_node F _ x cs 0 [] Hat ltac:(cbn; lia) Hfo Hnz ltac:(lia))
                  ltac:(lia) Hfetch ltac:(intros mk ->; exact Hside) Ht) as He.
    exact (scan_str_units txt [] _ [] _ _ (delivers_nil _ _) eq_refl He ltac:(cbn; lia) eq_refl).
  - destruct (dash_sp F (start_state txt) x cs 0 [] [] true (or_introl Hat) ltac:(constructor) ltac:(split; cbn; lia)
                (first_ok_not_ws x Hfo) Hbr Hfl ltac:(lia)) as (pre & s' & Hd & Hmp & Hat').
    cbn [joined Nat.add] in Hat'.
    pose proof (scalar_end F _ _ _ _ _ t side (tok_before_node F s' x cs 2 [0] Hat' ltac:(cbn; lia) Hfo Hnz ltac:(lia))
                  ltac:(lia) Hfetch ltac:(intros mk ->; exact Hside) Ht) as He.
    exact (scan_str_units txt pre s' _ _ _ Hd Hmp He ltac:(cbn; lia) eq_refl).
  - destruct (key_ok_word kw Hp) as (c0 & w & -> & Hw & Hlen). cbn [app] in Hat.
    destruct (key_at_tok F (start_state txt) c0 w 32 (x :: cs) 0 [] [] true Hat Hw Hlen (or_introl eq_refl) ltac:(constructor)
                ltac:(split; cbn; lia) ltac:(unfold F, txt; cbn [length app]; rewrite app_length; lia))
      as (pre & s' & Hd & Hmp & Hat').
    cbn [joined] in Hat'.
    pose proof (scalar_end F _ _ _ _ _ t side (below_before_node F s' x cs 0 [] Hat' Hfo Hnz ltac:(lia))
                  ltac:(lia) Hfetch (fun mk H => Hside _ H) Ht) as He.
    exact (scan_str_units txt pre s' _ _ _ Hd Hmp He ltac:(cbn; lia) eq_refl).
Qed.

(* text -> events: the scanner theorems composed with the parser theorem *)
(* [<= 8]: the parser's fuel in [Drivers.run_str] is at least 60 whatever the text ([run_str_scan]), so any small constant
   bound on the number of events will do; 8 is enough for the documents of one or two entries of ScalarContext*.v *)
Lemma run_of_scan txt t :
  (exists toks, scan_str txt = (toks, SEnded) /\ map snd toks = wrap false false (tokens_of t)) ->
  wf_root false t = true -> forallb plain_pev (pre_events t) = true -> (length (pre_events t) <= 8)%nat ->
  map fst (fst (run_str txt)) = wrap_events false (events_of t) /\ snd (run_str txt) = PDone.
Proof.
  intros (toks & Es & Hm) Hwf Hpl Hlen. destruct (run_str_scan txt) as (fuel & Hfuel & ->). rewrite Es.
  apply (parse_wrap t false false toks false SEnded fuel); [exact Hwf | apply bound_plain, Hpl | exact Hm |].
  unfold wrap_events, events_of. cbn [length]. rewrite app_length, number_length. cbn [length]. lia.
Qed.

(* the dispatch of fetch_next_token on a quote *)
Lemma rest_quote F (single : bool) cs l i ln c q adj ska k ind inds tp ta lws :
  (4 <= l)%nat -> (Z.of_N c <? ind)%Z = false ->
  fnt_rest F (mkb (quote_of single :: cs) l (mkm i ln c) q adj ska k ind inds tp ta lws)
  = fetch_flow_scalar str_ops F single (mkb (quote_of single :: cs) l (mkm i ln c) q adj ska k ind inds tp ta lws).
Proof.
  intros Hl Hcol. destruct (leb_look l Hl) as [L3 L2].
  unfold fnt_rest, mkb, mkm. destruct single; cbn; (destruct (c =? 0); cbn;
    [ unfold next_is_document_start, next_is_document_end, next_3_are, assert_buflen; cbn; rewrite L3; cbn; rewrite L2; cbn;
      rewrite ?L3; cbn; rewrite ?L2; cbn; rewrite Hcol; cbn; reflexivity
    | rewrite Hcol; cbn; reflexivity ]).
Qed.

(* skip_to_next_token over spaces and line feeds *)
(* they are consumed; a line feed among them allows a simple key *)
Lemma skip_ws_b tl : forall ws F l mk q adj ska k ind inds tp ta lws,
  ws_only ws = true -> (length ws < F)%nat ->
  exists l' mk' ska' lws',
    skip_to_next_token str_ops F (mkb (ws ++ tl) l mk q adj ska k ind inds tp ta lws)
    = skip_to_next_token str_ops (F - length ws) (mkb tl l' mk' q adj ska' k ind inds tp ta lws')
    /\ (ska = true \/ In 10 ws -> ska' = true).
Proof.
  induction ws as [|c ws IH]; intros F l mk q adj ska k ind inds tp ta lws Hws HF.
  - cbn [app length]. rewrite Nat.sub_0_r. exists l, mk, ska, lws. split; [reflexivity|]. intros [H|[]]. exact H.
  - destruct F as [|F]; [cbn in HF; lia|].
    cbn [ws_only forallb] in Hws. apply andb_prop in Hws as [Hc Hws]. fold (ws_only ws) in Hws.
    unfold skip_to_next_token at 1. fold (skip_to_next_token str_ops F). cbn [app length Nat.sub].
    apply orb_prop in Hc as [Hc|Hc]; apply N.eqb_eq in Hc; subst c.
    + unfold mkb at 1. cbn. unfold skip_linebreak, next_2_are, assert_buflen. cbn. rewrite ltb_max2. cbn.
      destruct mk as [mi ml mc]. unfold nlm. cbn [m_index m_line m_col].
      destruct (IH F (Nat.max (Nat.max l 1) 2) {| m_index := mi + 1; m_line := ml + 1; m_col := 0 |} q adj true k ind inds tp ta true Hws ltac:(cbn in HF; lia))
        as (l' & mk' & ska' & lws' & E & Hs).
      unfold mkb in E. rewrite E. exists l', mk', ska', lws'. split; [reflexivity|]. intros _. apply Hs. left. reflexivity.
    + unfold mkb at 1. cbn. destruct mk as [mi ml mc]. unfold adv. cbn [m_index m_line m_col].
      destruct (IH F (Nat.max l 1) {| m_index := mi + 1; m_line := ml; m_col := mc + 1 |} q adj ska k ind inds tp ta lws Hws ltac:(cbn in HF; lia))
        as (l' & mk' & ska' & lws' & E & Hs).
      unfold mkb in E. rewrite E. exists l', mk', ska', lws'. split; [reflexivity|].
      intros [H|[H|H]]; [apply Hs; left; exact H|discriminate H|apply Hs; right; exact H].
Qed.

Lemma skip_ws_eof : forall ws F l mk q adj ska k ind inds tp ta lws,
  ws_only ws = true -> (length ws < F)%nat ->
  exists l' mk' ska' lws',
    skip_to_next_token str_ops F (mkb ws l mk q adj ska k ind inds tp ta lws)
    = Ok (tt, mkb [] l' mk' q adj ska' k ind inds tp ta lws').
Proof.
  intros ws F l mk q adj ska k ind inds tp ta lws Hws HF.
  destruct (skip_ws_b [] ws F l mk q adj ska k ind inds tp ta lws Hws HF) as (l' & mk' & ska' & lws' & E & _).
  rewrite app_nil_r in E. rewrite E. eexists; eexists; eexists; eexists. apply skip_eof. lia.
Qed.

(* fetch_flow_scalar on a presentation of the specification *)
Definition q_src (single : bool) (first : list dq_item) (more : list (brk_layout * list dq_item)) : list N :=
  if single then sq_render first more else dq_render first more.
Definition q_wf (single : bool) (n : nat) (first : list dq_item) (more : list (brk_layout * list dq_item)) : bool :=
  if single then sq_layout_wf n first more else dq_layout_wf n first more.
(* the text of a quoted scalar and what follows it *)
Definition q_text (single : bool) (first : list dq_item) (more : list (brk_layout * list dq_item)) (rest : list N) : list N :=
  quote_of single :: q_src single first more ++ quote_of single :: rest.

Lemma fetch_quoted_case F single n first more rest l mk q adj ska k ind inds tp lws :
  q_wf single n first more = true -> ws_only rest = true ->
  (ind < Z.of_nat n)%Z -> (ind <= Z.of_N (m_col mk) + 1)%Z ->
  (2 * length (q_text single first more rest) + 10 <= F)%nat ->
  ((ind =? Z.of_N (m_col mk))%Z = true -> inds <> []) ->
  exists l' mk' sp adj' ska' lws' ind' inds',
    fetch_flow_scalar str_ops F single (mkb (q_text single first more rest) l mk q adj ska k ind inds tp false lws)
    = Ok (tt, mkb [] l' mk' (q ++ [(sp, TScalar (style_of single) (dq_text first more))]) adj' ska' (saved ska k ind inds tp q mk) ind' inds' tp false lws')
    /\ nbrel (ind, inds) (ind', inds').
Proof.
  intros Hwf Hws Hn Hcol HF Hreq.
  destruct (scan_flow_scalar_ws F single n first more rest
              (mkb (q_text single first more rest) l mk q adj false (saved ska k ind inds tp q mk) ind inds tp false lws)
              Hwf eq_refl Hws Hn Hcol HF) as (sp & s' & E & _ & Hin).
  destruct (frame_b _ _ _ _ _ _ _ _ _ _ _ _ s' (Fr_scan_flow_scalar str_ops F single _ _ s' E))
    as (cs' & l' & mk' & ska' & lws' & ind' & inds' & -> & Hnb & _).
  cbn in Hin. subst cs'.
  assert (Hlen : (length (drop_leading rest) < F)%nat).
  { destruct (split_leading rest) as [Hs _]. apply (f_equal (@length N)) in Hs. rewrite app_length in Hs.
    unfold q_text in HF. cbn [length] in HF. rewrite app_length in HF. cbn [length] in HF. lia. }
  destruct (skip_ws_eof (drop_leading rest) F l' mk' q adj ska' (saved ska k ind inds tp q mk) ind' inds' tp false lws'
              (ws_only_drop rest Hws) Hlen) as (l2 & mk2 & ska2 & lws2 & E2).
  exists l2, mk2, sp, (m_index mk2), ska2, lws2, ind', inds'. split; [|exact Hnb].
  etransitivity; [exact (fetch_scan_b _ (fun t => skip_to_next_token str_ops F ;;; modify (fun s => set_adj (m_index (sc_mark s)) s) ;;; push_tok t)
                           false _ _ _ _ _ _ _ _ _ _ _ _ _ Hreq E)|].
  cbn [bind]. rewrite E2. reflexivity.
Qed.

Lemma quote_first single : node_head (quote_of single).
Proof. destruct single; repeat split; reflexivity. Qed.

Definition q_tok (single : bool) (first : list dq_item) (more : list (brk_layout * list dq_item)) : tok :=
  TScalar (style_of single) (dq_text first more).

(* continuation lines indented by n, right of the enclosing indentation *)
Definition quoted_side (n : nat) (ind : Z) (inds : list indent_rec) (col : N) : Prop :=
  (Z.of_N col <? ind)%Z = false /\ (ind < Z.of_nat n)%Z.

Lemma quoted_fetches F single n first more rest :
  q_wf single n first more = true -> ws_only rest = true -> (2 * length (q_text single first more rest) + 10 <= F)%nat ->
  fetches F (q_text single first more rest) [] (q_tok single first more) (quoted_side n).
Proof.
  intros Hwf Hws HF l [i ln c] q adj ska k ind inds tp lws Hl [Hcol Hn] Hreq. cbn [m_col] in Hcol.
  unfold q_text at 1. rewrite (rest_quote F single _ l i ln c q adj ska k ind inds tp false lws Hl Hcol).
  apply Z.ltb_ge in Hcol.
  destruct (fetch_quoted_case F single n first more rest l (mkm i ln c) q adj ska k ind inds tp lws Hwf Hws Hn
              ltac:(cbn [m_col mkm]; lia) HF Hreq) as (l' & mk' & sp & adj' & ska' & lws' & ind' & inds' & E & Hnb).
  exists l', mk', sp, adj', ska', lws', ind', inds'. split; assumption.
Qed.

(* the document is one quoted scalar (any continuation indentation n) *)
Theorem scan_quoted_top single n first more rest :
  q_wf single n first more = true -> ws_only rest = true ->
  exists toks, scan_str (q_text single first more rest) = (toks, SEnded) /\
               map snd toks = wrap false false [q_tok single first more].
Proof.
  intros Hwf Hws.
  apply (ctx_scalar_end Top _ _ (q_tok single first more) (quoted_side n) I (quote_first single) ltac:(discriminate)).
  - apply (quoted_fetches _ single n first more rest Hwf Hws). apply Nat.le_refl.
  - split; [reflexivity|cbn; lia].
Qed.

(* "- " in front, continuation lines indented by n >= 1 *)
Theorem scan_quoted_entry single n first more rest :
  q_wf single n first more = true -> ws_only rest = true -> (1 <= n)%nat ->
  exists toks, scan_str (45 :: 32 :: q_text single first more rest) = (toks, SEnded) /\
               map snd toks = wrap false false [TBlockSequenceStart; TBlockEntry; q_tok single first more; TBlockEnd].
Proof.
  intros Hwf Hws Hn.
  apply (ctx_scalar_end Entry _ _ (q_tok single first more) (quoted_side n) I (quote_first single) ltac:(discriminate)).
  - apply (quoted_fetches _ single n first more rest Hwf Hws). unfold q_text. cbn [in_place length]. lia.
  - split; [reflexivity|cbn; lia].
Qed.

(* "key: " in front, continuation lines indented by n >= 2 (C04_quoted_full compares n with the indentation that
   roll_one_col_indent has raised to 1) *)
Theorem scan_quoted_value kw single n first more rest :
  key_ok kw = true -> q_wf single n first more = true -> ws_only rest = true -> (2 <= n)%nat ->
  exists toks, scan_str (kw ++ 58 :: 32 :: q_text single first more rest) = (toks, SEnded) /\
               map snd toks = wrap false false [TBlockMappingStart; TKey; TScalar Plain kw; TValue; q_tok single first more; TBlockEnd].
Proof.
  intros Hkw Hwf Hws Hn.
  apply (ctx_scalar_end (Value kw) _ _ (q_tok single first more) (quoted_side n) Hkw (quote_first single) ltac:(discriminate)).
  - apply (quoted_fetches _ single n first more rest Hwf Hws). unfold q_text. cbn [in_place]. rewrite (app_length kw). cbn [length]. lia.
  - intros c Hc. split; [apply Z.ltb_ge|]; lia.
Qed.

(* text -> events *)
Definition q_node (single : bool) (first : list dq_item) (more : list (brk_layout * list dq_item)) : ltree :=
  LScalar no_props (style_of single) (dq_text first more).

Theorem run_quoted_top single n first more rest :
  q_wf single n first more = true -> ws_only rest = true ->
  map fst (fst (run_str (q_text single first more rest)))
  = [EStreamStart; EDocumentStart false; EScalar (dq_text first more) (style_of single) 0 None; EDocumentEnd; EStreamEnd]
  /\ snd (run_str (q_text single first more rest)) = PDone.
Proof.
  intros Hwf Hws.
  exact (run_of_scan _ (q_node single first more) (scan_quoted_top single n first more rest Hwf Hws) eq_refl eq_refl ltac:(cbn; lia)).
Qed.

Theorem run_quoted_entry single n first more rest :
  q_wf single n first more = true -> ws_only rest = true -> (1 <= n)%nat ->
  map fst (fst (run_str (45 :: 32 :: q_text single first more rest)))
  = [EStreamStart; EDocumentStart false; ESequenceStart 0 None; EScalar (dq_text first more) (style_of single) 0 None; ESequenceEnd;
     EDocumentEnd; EStreamEnd]
  /\ snd (run_str (45 :: 32 :: q_text single first more rest)) = PDone.
Proof.
  intros Hwf Hws Hn.
  exact (run_of_scan _ (LBSeq no_props [q_node single first more]) (scan_quoted_entry single n first more rest Hwf Hws Hn)
           eq_refl eq_refl ltac:(cbn; lia)).
Qed.

Theorem run_quoted_value kw single n first more rest :
  key_ok kw = true -> q_wf single n first more = true -> ws_only rest = true -> (2 <= n)%nat ->
  map fst (fst (run_str (kw ++ 58 :: 32 :: q_text single first more rest)))
  = [EStreamStart; EDocumentStart false; EMappingStart 0 None; EScalar kw Plain 0 None;
     EScalar (dq_text first more) (style_of single) 0 None; EMappingEnd; EDocumentEnd; EStreamEnd]
  /\ snd (run_str (kw ++ 58 :: 32 :: q_text single first more rest)) = PDone.
Proof.
  intros Hkw Hwf Hws Hn.
  exact (run_of_scan _ (LBMap no_props [(true, lword kw, (true, q_node single first more))])
           (scan_quoted_value kw single n first more rest Hkw Hwf Hws Hn) eq_refl eq_refl ltac:(cbn; lia)).
Qed.
