(* C07 — the loader model (Model/Loader.v: on_event / insert_new_node over explicit stacks) refines the
   tree specification (Spec/BuildDocs.v), for ALL event trees; and every event list the grammar acceptor
   accepts is the flattening of a (unique, computable) list of trees. *)
From Coq Require Import List NArith ZArith Bool Lia.
Import ListNotations.
Require Import Parser Resolver Loader Grammar BuildDocs ListKit.

(* induction principle for the rose tree *)
Section etree_induction.
  Variable P : etree -> Prop.
  Hypothesis Hs : forall v st a tg, P (TScalar v st a tg).
  Hypothesis Ha : forall i, P (TAlias i).
  Hypothesis Hq : forall a tg l, Forall P l -> P (TSeq a tg l).
  Hypothesis Hm : forall a tg l, Forall (fun kv => P (fst kv) /\ P (snd kv)) l -> P (TMap a tg l).
  Fixpoint etree_ind2 (t : etree) : P t :=
    match t with
    | TScalar v st a tg => Hs v st a tg
    | TAlias i => Ha i
    | TSeq a tg l => Hq a tg l (Forall_all P etree_ind2 l)
    | TMap a tg l => Hm a tg l (Forall_all _ (fun kv => conj (etree_ind2 (fst kv)) (etree_ind2 (snd kv))) l)
    end.
End etree_induction.

(* the loader on a whole tree *)
Notation mkL := Build_loader.

Definition lbind (r : lres) (f : loader -> lres) : lres :=
  match r with LOk l => f l | LPanic n => LPanic n end.

(* where a completed node goes (insert_new_node without the anchor registration) *)
Definition place (ld : loader) (node : yaml) (aid : N) : lres :=
  match l_stack ld with
  | [] => LOk (mkL (l_docs ld) [(node, aid)] (l_keys ld) (l_anchors ld))
  | (YSeq items, paid) :: rest => LOk (mkL (l_docs ld) ((YSeq (items ++ [node]), paid) :: rest) (l_keys ld) (l_anchors ld))
  | (YMap pairs, paid) :: rest =>
      match l_keys ld with
      | [] => LPanic 300
      | None :: ks => LOk (mkL (l_docs ld) (l_stack ld) (Some node :: ks) (l_anchors ld))
      | Some key :: ks => LOk (mkL (l_docs ld) ((YMap (map_insert key node pairs), paid) :: rest) (None :: ks) (l_anchors ld))
      end
  | _ => LOk ld
  end.

Definition aid_of (t : etree) : N :=
  match t with TScalar _ _ a _ => a | TAlias _ => 0%N | TSeq a _ _ => a | TMap a _ _ => a end.

Lemma insert_place d s ks m y a :
  insert_new_node (mkL d s ks m) y a = place (mkL d s ks (reg a y m)) y a.
Proof.
  unfold place, insert_new_node, reg. cbn [l_docs l_stack l_keys l_anchors].
  destruct s as [|[[ | | |] pa] rest]; reflexivity.
Qed.

Lemma load_events_app a b ld :
  load_events (a ++ b) ld = lbind (load_events a ld) (load_events b).
Proof.
  revert ld; induction a as [|e a IH]; intros ld; cbn [app load_events lbind]; [reflexivity|].
  destruct (on_event ld e); [apply IH|reflexivity].
Qed.

Lemma load_events_cons e k ld : load_events (e :: k) ld = lbind (on_event ld e) (load_events k).
Proof. cbn [load_events lbind]. destruct (on_event ld e); reflexivity. Qed.

Definition tree_ok (t : etree) : Prop :=
  forall k d s ks m,
    load_events (events_of t ++ k) (mkL d s ks m) =
    lbind (place (mkL d s ks (snd (build m t))) (fst (build m t)) (aid_of t)) (load_events k).

Lemma load_items l : Forall tree_ok l ->
  forall k d acc a s ks m,
    load_events (events_items events_of l ++ k) (mkL d ((YSeq acc, a) :: s) ks m) =
    load_events k (mkL d ((YSeq (acc ++ fst (build_items build m l)), a) :: s) ks (snd (build_items build m l))).
Proof.
  induction 1 as [|t r Ht _ IH]; intros k d acc a s ks m.
  - cbn [events_items build_items fst snd app]. rewrite app_nil_r. reflexivity.
  - cbn [events_items build_items]. rewrite <- app_assoc. rewrite Ht.
    destruct (build m t) as [y m1] eqn:Eb. cbn [fst snd].
    unfold place. cbn [l_docs l_stack l_keys l_anchors lbind].
    rewrite IH. destruct (build_items build m1 r) as [ys m2]. cbn [fst snd].
    rewrite <- app_assoc. reflexivity.
Qed.

Lemma load_pairs l : Forall (fun kv => tree_ok (fst kv) /\ tree_ok (snd kv)) l ->
  forall k d acc a s ks m,
    load_events (events_pairs events_of l ++ k) (mkL d ((YMap acc, a) :: s) (None :: ks) m) =
    load_events k (mkL d ((YMap (fst (build_pairs build m l acc)), a) :: s) (None :: ks)
                       (snd (build_pairs build m l acc))).
Proof.
  induction 1 as [|[kt vt] r [Hk Hv] _ IH]; intros k d acc a s ks m.
  - cbn [events_pairs build_pairs fst snd app]. reflexivity.
  - cbn [fst snd] in Hk, Hv. cbn [events_pairs build_pairs]. rewrite <- !app_assoc. rewrite Hk.
    destruct (build m kt) as [ky m1] eqn:Ek. cbn [fst snd].
    unfold place at 1. cbn [l_docs l_stack l_keys l_anchors lbind].
    rewrite Hv. destruct (build m1 vt) as [vy m2] eqn:Ev. cbn [fst snd].
    unfold place at 1. cbn [l_docs l_stack l_keys l_anchors lbind].
    apply IH.
Qed.

Theorem load_tree : forall t, tree_ok t.
Proof.
  induction t as [v st a tg|i|a tg l IH|a tg l IH] using etree_ind2; intros k d s ks m.
  - cbn [events_of app build fst snd]. rewrite load_events_cons. cbn [on_event]. rewrite insert_place. reflexivity.
  - cbn [events_of app build fst snd]. rewrite load_events_cons. cbn [on_event l_anchors].
    fold (deref i m). rewrite insert_place. unfold reg. change (0 <? 0)%N with false. reflexivity.
  - cbn [events_of build]. rewrite <- app_comm_cons, load_events_cons. cbn [on_event l_docs l_stack l_keys l_anchors lbind].
    rewrite <- app_assoc. rewrite (load_items l IH).
    destruct (build_items build m l) as [ys m'] eqn:Eb. cbn [fst snd app].
    rewrite load_events_cons. cbn [on_event l_docs l_stack l_keys l_anchors]. rewrite insert_place. reflexivity.
  - cbn [events_of build]. rewrite <- app_comm_cons, load_events_cons. cbn [on_event l_docs l_stack l_keys l_anchors lbind].
    rewrite <- app_assoc. rewrite (load_pairs l IH).
    destruct (build_pairs build m l []) as [ps m'] eqn:Eb. cbn [fst snd app].
    rewrite load_events_cons. cbn [on_event l_docs l_stack l_keys l_anchors]. rewrite insert_place. reflexivity.
Qed.

(* the generalised stack lemma in the form announced: a whole tree in front of any continuation acts as one
   insert_new_node of its value (anchor registration included) *)
Corollary load_tree_insert t k d s ks m :
  load_events (events_of t ++ k) (mkL d s ks m) =
  lbind (place (mkL d s ks (snd (build m t))) (fst (build m t)) (aid_of t)) (load_events k).
Proof. apply load_tree. Qed.

Lemma load_docs ds : forall k d m,
  load_events (events_docs ds ++ k) (mkL d [] [] m) =
  load_events k (mkL (rev (fst (build_docs m ds)) ++ d) [] [] (snd (build_docs m ds))).
Proof.
  induction ds as [|[e t] r IH]; intros k d m.
  - reflexivity.
  - cbn [events_docs build_docs]. unfold events_doc. cbn [fst snd]. rewrite <- app_assoc, <- app_comm_cons, load_events_cons.
    cbn [on_event lbind]. rewrite <- app_assoc. rewrite load_tree.
    destruct (build m t) as [y m1]. cbn [fst snd].
    unfold place. cbn [l_docs l_stack l_keys l_anchors lbind].
    rewrite <- app_comm_cons, load_events_cons. cbn [on_event l_docs l_stack l_keys l_anchors lbind app].
    rewrite IH. destruct (build_docs m1 r) as [ys m2]. cbn [fst snd rev]. rewrite <- app_assoc. reflexivity.
Qed.

Theorem loader_refines_spec ds :
  load_events (stream_of ds) l0 =
  LOk (mkL (rev (fst (build_docs [] ds))) [] [] (snd (build_docs [] ds))).
Proof.
  unfold stream_of, l0. rewrite load_events_cons. cbn [on_event lbind].
  rewrite load_docs. cbn [load_events on_event]. rewrite app_nil_r. reflexivity.
Qed.

Corollary loader_docs_spec ds :
  exists ld, load_events (stream_of ds) l0 = LOk ld /\ rev (l_docs ld) = spec_load ds
             /\ l_stack ld = [] /\ l_keys ld = [].
Proof.
  eexists. split; [apply loader_refines_spec|]. cbn [l_docs l_stack l_keys]. rewrite rev_involutive. auto.
Qed.

(* sentences are flattened trees: parse_events is sound, and accepts exactly what grun accepts *)
Lemma events_items_app f a b : events_items f (a ++ b) = events_items f a ++ events_items f b.
Proof. induction a as [|x a IH]; cbn [app events_items]; [reflexivity|]. rewrite IH, app_assoc. reflexivity. Qed.
Lemma events_pairs_app f a b : events_pairs f (a ++ b) = events_pairs f a ++ events_pairs f b.
Proof.
  induction a as [|[k v] a IH]; cbn [app events_pairs]; [reflexivity|]. rewrite IH, <- !app_assoc. reflexivity.
Qed.
Lemma events_docs_app a b : events_docs (a ++ b) = events_docs a ++ events_docs b.
Proof. induction a as [|x a IH]; cbn [app events_docs]; [reflexivity|]. rewrite IH, app_assoc. reflexivity. Qed.

Definition open_events (f : pframe) : list event :=
  match f with
  | PSeq a tg ri => ESequenceStart a tg :: events_items events_of (rev ri)
  | PMapK a tg re => EMappingStart a tg :: events_pairs events_of (rev re)
  | PMapV a tg re k => EMappingStart a tg :: events_pairs events_of (rev re) ++ events_of k
  end.
Fixpoint frames_events (fs : list pframe) : list event :=
  match fs with [] => [] | f :: r => frames_events r ++ open_events f end.

(* the events consumed so far *)
Definition flat (s : pstate) : list event :=
  match s with
  | PInit => []
  | PBetween rd => EStreamStart :: events_docs (rev rd)
  | PDoc rd e fs => EStreamStart :: events_docs (rev rd) ++ EDocumentStart e :: frames_events fs
  | PDocDone rd e t => EStreamStart :: events_docs (rev rd) ++ EDocumentStart e :: events_of t
  | PEnd ds => stream_of ds
  end.

Ltac lnorm := repeat (progress (cbn [app]) || rewrite <- app_assoc || rewrite app_nil_r).

Lemma flat_complete rd e fs t : flat (pcomplete rd e fs t) = flat (PDoc rd e fs) ++ events_of t.
Proof.
  destruct fs as [|[a tg ri|a tg re|a tg re k] r]; cbn [pcomplete flat frames_events open_events rev];
    rewrite ?events_items_app, ?events_pairs_app; cbn [events_items events_pairs]; lnorm; reflexivity.
Qed.

Lemma flat_step s e s' : pstep s e = Some s' -> flat s' = flat s ++ [e].
Proof.
  destruct e, s; cbn [pstep]; try discriminate; intros H;
    try (destruct fs as [|[a' tg' ri|a' tg' re|a' tg' re k] r]; try discriminate);
    inversion H; subst; rewrite ?flat_complete;
    cbn [flat frames_events open_events rev events_items events_pairs events_of]; unfold stream_of;
    rewrite ?events_docs_app, ?events_items_app, ?events_pairs_app; cbn [events_docs events_items events_pairs events_of];
    unfold events_doc; cbn [fst snd]; lnorm; reflexivity.
Qed.

Lemma flat_run evs : forall s s', prun s evs = Some s' -> flat s' = flat s ++ evs.
Proof.
  induction evs as [|e r IH]; intros s s' H; cbn [prun] in H.
  - inversion H; subst. rewrite app_nil_r. reflexivity.
  - destruct (pstep s e) as [s1|] eqn:E; [|discriminate].
    rewrite (IH _ _ H), (flat_step _ _ _ E), <- app_assoc. reflexivity.
Qed.

Theorem parse_events_sound evs ds : parse_events evs = Some ds -> evs = stream_of ds.
Proof.
  unfold parse_events. destruct (prun PInit evs) as [[| | | |ds']|] eqn:E; try discriminate.
  intros H; inversion H; subst. apply flat_run in E. cbn [flat app] in E. symmetry. exact E.
Qed.

(* the acceptor state a parse state corresponds to *)
Definition frame_of (f : pframe) : frame :=
  match f with PSeq _ _ _ => FSeq | PMapK _ _ _ => FMapKey | PMapV _ _ _ _ => FMapVal end.
Definition gof (s : pstate) : gstate :=
  match s with
  | PInit => GInit
  | PBetween _ => GStream []
  | PDoc _ _ fs => GStream (map frame_of fs ++ [FDoc])
  | PDocDone _ _ _ => GStream [FDocDone]
  | PEnd _ => GEnd
  end.

Lemma gof_complete rd e fs t :
  option_map GStream (complete (map frame_of fs ++ [FDoc])) = Some (gof (pcomplete rd e fs t)).
Proof. destruct fs as [|[a tg ri|a tg re|a tg re k] r]; reflexivity. Qed.

Lemma node_ok_frames fs : node_ok (map frame_of fs ++ [FDoc]) = true.
Proof. destruct fs as [|[a tg ri|a tg re|a tg re k] r]; reflexivity. Qed.

Lemma gstep_pstep s e : gstep (gof s) e = option_map gof (pstep s e).
Proof.
  destruct e, s; cbn [gof gstep on_stream pstep option_map]; try reflexivity;
    try (destruct fs as [|[a' tg' ri|a' tg' re|a' tg' re k] r]; reflexivity);
    try (apply gof_complete);
    try (rewrite node_ok_frames; reflexivity).
  - destruct fs as [|[a' tg' ri|a' tg' re|a' tg' re k] r]; cbn [map app]; try reflexivity.
    apply gof_complete.
  - destruct fs as [|[a' tg' ri|a' tg' re|a' tg' re k] r]; cbn [map app]; try reflexivity.
    apply gof_complete.
Qed.

Lemma grun_prun evs : forall s, grun (gof s) evs = option_map gof (prun s evs).
Proof.
  induction evs as [|e r IH]; intros s; cbn [grun prun option_map]; [reflexivity|].
  rewrite gstep_pstep. destruct (pstep s e) as [s1|]; cbn [option_map]; [apply IH|reflexivity].
Qed.

Theorem accepted_iff_parses evs :
  grun GInit evs = Some GEnd <-> exists ds, parse_events evs = Some ds.
Proof.
  change GInit with (gof PInit). rewrite grun_prun. unfold parse_events. split.
  - destruct (prun PInit evs) as [[| | | |ds]|]; cbn [option_map gof]; try discriminate. eauto.
  - intros [ds H]. destruct (prun PInit evs) as [[| | | |ds']|]; try discriminate. reflexivity.
Qed.

Theorem accepted_decomposes evs :
  grun GInit evs = Some GEnd -> exists ds, parse_events evs = Some ds /\ evs = stream_of ds.
Proof.
  intros H. apply accepted_iff_parses in H. destruct H as [ds H]. exists ds. split; [exact H|].
  apply parse_events_sound; exact H.
Qed.

Theorem parse_events_complete ds : parse_events (stream_of ds) <> None.
Proof.
  (* every flattened forest is accepted: through the loader-independent acceptor *)
  intros H.
  assert (A : forall t k stk, node_ok stk = true ->
             grun (GStream stk) (events_of t ++ k) =
             match complete stk with Some stk' => grun (GStream stk') k | None => None end).
  { induction t as [v st a tg|i|a tg l IH|a tg l IH] using etree_ind2; intros k stk Hok.
    - cbn [events_of app grun gstep on_stream]. destruct (complete stk); reflexivity.
    - cbn [events_of app grun gstep on_stream]. destruct (complete stk); reflexivity.
    - cbn [events_of]. rewrite <- app_comm_cons. cbn [grun gstep on_stream]. rewrite Hok.
      rewrite <- app_assoc.
      assert (B : forall k', grun (GStream (FSeq :: stk)) (events_items events_of l ++ k') = grun (GStream (FSeq :: stk)) k').
      { induction IH as [|x r Hx _ IHr]; intros k'; [reflexivity|].
        cbn [events_items]. rewrite <- app_assoc. rewrite Hx by reflexivity. cbn [complete]. apply IHr. }
      rewrite B. cbn [app grun gstep on_stream]. destruct (complete stk); reflexivity.
    - cbn [events_of]. rewrite <- app_comm_cons. cbn [grun gstep on_stream]. rewrite Hok.
      rewrite <- app_assoc.
      assert (B : forall k', grun (GStream (FMapKey :: stk)) (events_pairs events_of l ++ k') = grun (GStream (FMapKey :: stk)) k').
      { induction IH as [|[kx vx] r [Hk Hv] _ IHr]; intros k'; [reflexivity|].
        cbn [fst snd] in Hk, Hv. cbn [events_pairs]. rewrite <- !app_assoc.
        rewrite Hk by reflexivity. cbn [complete]. rewrite Hv by reflexivity. cbn [complete]. apply IHr. }
      rewrite B. cbn [app grun gstep on_stream]. destruct (complete stk); reflexivity. }
  assert (D : forall ds k, grun (GStream []) (events_docs ds ++ k) = grun (GStream []) k).
  { induction ds0 as [|[e t] r IHr]; intros k; [reflexivity|].
    cbn [events_docs]. unfold events_doc. cbn [fst snd]. rewrite <- app_assoc, <- app_comm_cons. cbn [grun gstep on_stream].
    rewrite <- app_assoc. rewrite A by reflexivity. cbn [complete].
    rewrite <- app_comm_cons. cbn [grun gstep on_stream app]. apply IHr. }
  assert (E : grun GInit (stream_of ds) = Some GEnd).
  { unfold stream_of. cbn [grun gstep]. rewrite D. reflexivity. }
  apply accepted_iff_parses in E. destruct E as [ds' E]. congruence.
Qed.

(* every accepted event list loads, without panic, to the specification's documents *)
Theorem accepted_loads_spec evs :
  grun GInit evs = Some GEnd ->
  exists ds ld, parse_events evs = Some ds /\ evs = stream_of ds /\
                load_events evs l0 = LOk ld /\ rev (l_docs ld) = spec_load ds /\ l_stack ld = [] /\ l_keys ld = [].
Proof.
  intros H. destruct (accepted_decomposes evs H) as [ds [Hp He]].
  destruct (loader_docs_spec ds) as [ld [Hl [Hd [Hs Hk]]]].
  exists ds, ld. subst evs. repeat split; assumption || reflexivity.
Qed.

Theorem accepted_never_panics evs n : grun GInit evs = Some GEnd -> load_events evs l0 <> LPanic n.
Proof.
  intros H. destruct (accepted_loads_spec evs H) as [ds [ld [_ [_ [Hl _]]]]]. rewrite Hl. discriminate.
Qed.

(* the executable oracle agrees with the loader on everything the grammar accepts *)
Theorem oracle_agrees evs :
  grun GInit evs = Some GEnd ->
  exists ld, load_events evs l0 = LOk ld /\ spec_of_events evs = Some (rev (l_docs ld)).
Proof.
  intros H. destruct (accepted_loads_spec evs H) as [ds [ld [Hp [_ [Hl [Hd _]]]]]].
  exists ld. split; [exact Hl|]. unfold spec_of_events. rewrite Hp. cbn [option_map]. rewrite Hd. reflexivity.
Qed.
