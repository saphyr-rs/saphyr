(* C15, text level, ANY number of streams: the n-ary form of [text_composition_final] (ScanPrefixFinalTop.v).

     glue_all_text A0 [A1; ...; An]  =  A0 ++ "...\n" ++ A1 ++ "...\n" ++ ... ++ An

     text_composition_many       every part accepted by run_str, every part except possibly the last one NUL-free and ending
                                 with a line break (or empty)  =>  the glued text is accepted and its events without spans are
                                 [glue_allE] of the parts' events - the SAME function the token-level theorem
                                 [doc_composition_many] (DocIndep.v) is stated with
     glue_allE_explicit          what that function computes on accepted streams: StreamStart, the documents of A0, the
                                 documents of A1 with every anchor / alias id raised by the number of anchored nodes of A0,
                                 the documents of A2 raised by the number of anchored nodes of A0 and A1, ..., StreamEnd
     text_composition_many_explicit   the two together *)
From Coq Require Import List NArith ZArith Bool Arith Lia.
Import ListNotations.
Require Import Parser SBase SPrim SDir SScalar SFetch Pipe C02run DocRun DocShift DocIndep DocIndepRun.
Require Import ScanShift ScanShiftTop ScanShiftDoc ScanPrefixDoc ScanPrefixFinalTop.
Local Open Scope nat_scope.

(* 1. the glued text *)
Fixpoint glue_all_text (A0 : list chr) (l : list (list chr)) : list chr :=
  match l with [] => A0 | A1 :: r => A0 ++ dots ++ glue_all_text A1 r end.

(* the same text, read as "glue the first two, go on": the form the induction uses *)
Lemma glue_all_text_left A0 A1 r : glue_all_text A0 (A1 :: r) = glue_all_text (glue_text A0 A1) r.
Proof.
  destruct r as [|A2 r]; cbn [glue_all_text]; unfold glue_text; [reflexivity|].
  rewrite <- !app_assoc. reflexivity.
Qed.

(* [glue_text A B] ends with a line break as soon as B does (an empty B: the break of the marker line) *)
Lemma last_app_ne {T} (a b : list T) d : b <> [] -> last (a ++ b) d = last b d.
Proof.
  intros Hb. induction a as [|x a IH]; [reflexivity|]. cbn [app]. rewrite <- IH.
  destruct (a ++ b) eqn:E; [|reflexivity]. apply app_eq_nil in E. destruct E as [_ E]. contradiction.
Qed.
Lemma glue_text_ends_with_break A B : ends_with_break B -> ends_with_break (glue_text A B).
Proof.
  intros [->|HB]; right; unfold glue_text.
  - rewrite app_nil_r, last_app_ne by discriminate. reflexivity.
  - destruct B as [|b B]; [rewrite app_nil_r, last_app_ne by discriminate; reflexivity|].
    rewrite app_assoc, last_app_ne by discriminate. exact HB.
Qed.
Lemma glue_text_nonul A B : nonul A -> nonul B -> nonul (glue_text A B).
Proof.
  intros HA HB. unfold nonul, glue_text. apply Forall_app. split; [exact HA|]. apply Forall_app. split; [|exact HB].
  unfold dots. repeat constructor; discriminate.
Qed.

(* 2. the composition, any number of parts *)
(* a part: its text and its events.  [glue_allE] takes (marker span, tokens, events) and reads the events only. *)
Definition part : Type := (list chr * list (event * span))%type.
Definition part_entry (x : part) : span * list token * list (event * span) :=
  (span_empty mk0, fst (str_scan (fst x)), snd x).
(* what is asked of every part that is followed by a marker line *)
Definition inner_ok (A : list chr) : Prop := ends_with_break A /\ nonul A.

Theorem text_composition_many (l : list part) : forall A0 E0,
  run_str A0 = (E0, PDone) -> Forall (fun x => run_str (fst x) = (snd x, PDone)) l ->
  Forall inner_ok (removelast (A0 :: map fst l)) ->
  exists EC, run_str (glue_all_text A0 (map fst l)) = (EC, PDone)
             /\ evs_of EC = glue_allE (evs_of E0) (map part_entry l).
Proof.
  induction l as [|[A1 E1] r IH]; intros A0 E0 H0 HL HI; [exists E0; split; [exact H0|reflexivity]|].
  inversion HL as [|? ? H1 HR]; subst. cbn [fst snd] in H1.
  cbn [map fst] in HI. change (removelast (A0 :: A1 :: map fst r)) with (A0 :: removelast (A1 :: map fst r)) in HI.
  inversion HI as [|? ? [HB0 HN0] HI']; subst.
  destruct (text_composition_final A0 A1 E0 E1 HB0 HN0 H0 H1) as (E01 & H01 & EV01).
  destruct (IH (glue_text A0 A1) E01 H01 HR) as (EC & HC & EV).
  { destruct r as [|x r]; [constructor|]. cbn [map] in *.
    change (removelast (A1 :: fst x :: map fst r)) with (A1 :: removelast (fst x :: map fst r)) in HI'.
    change (removelast (glue_text A0 A1 :: fst x :: map fst r))
      with (glue_text A0 A1 :: removelast (fst x :: map fst r)).
    inversion HI' as [|? ? [HB1 HN1] HI'']; subst. constructor; [|exact HI''].
    split; [exact (glue_text_ends_with_break A0 A1 HB1)|exact (glue_text_nonul A0 A1 HN0 HN1)]. }
  exists EC. split.
  - cbn [map fst]. rewrite glue_all_text_left. exact HC.
  - rewrite EV, EV01. reflexivity.
Qed.

(* 3. [glue_allE] on accepted streams, explicitly *)
(* the events of an accepted stream: StreamStart, documents, StreamEnd *)
Definition stream_shape (e : list event) : Prop := exists d, e = EStreamStart :: d ++ [EStreamEnd].
Definition docs_of (e : list event) : list event := removelast (tl e).
(* the documents of the parts one after the other, part i raised by the number of anchored nodes of the parts before *)
Fixpoint glue_docs (d : N) (l : list (list event)) : list event :=
  match l with [] => [] | e :: r => map (shift_ev d) (docs_of e) ++ glue_docs (d + count_anchored e) r end.

Lemma docs_of_shape d : docs_of (EStreamStart :: d ++ [EStreamEnd]) = d.
Proof. unfold docs_of. cbn [tl]. apply removelast_last. Qed.

Lemma shift_ev_0 e : shift_ev 0 e = e.
Proof.
  destruct e; cbn [shift_ev]; unfold sh; rewrite ?N.add_0_r; try reflexivity;
    match goal with |- context [N.eqb ?a 0] => destruct (N.eqb_spec a 0) as [->|_]; reflexivity end.
Qed.
Lemma map_shift_ev_0 l : map (shift_ev 0) l = l.
Proof. induction l as [|e l IH]; cbn [map]; [reflexivity|]. rewrite shift_ev_0, IH. reflexivity. Qed.
Lemma sh_eqb0 d a : (sh d a =? 0)%N = (a =? 0)%N.
Proof.
  unfold sh. destruct (N.eqb_spec a 0) as [->|Ha]; [reflexivity|]. apply N.eqb_neq. lia.
Qed.
Lemma anchored_shift d e : anchored (shift_ev d e) = anchored e.
Proof. destruct e; cbn [shift_ev anchored]; rewrite ?sh_eqb0; reflexivity. Qed.
Lemma count_anchored_shift d l : count_anchored (map (shift_ev d) l) = count_anchored l.
Proof.
  unfold count_anchored. f_equal. induction l as [|e l IH]; [reflexivity|]. cbn [map filter].
  rewrite anchored_shift. destruct (anchored e); cbn [length]; rewrite IH; reflexivity.
Qed.
Lemma count_anchored_app a b : count_anchored (a ++ b) = (count_anchored a + count_anchored b)%N.
Proof. unfold count_anchored. rewrite filter_app, app_length. lia. Qed.
Lemma count_anchored_shape d : count_anchored (EStreamStart :: d ++ [EStreamEnd]) = count_anchored d.
Proof.
  change (EStreamStart :: d ++ [EStreamEnd]) with ([EStreamStart] ++ d ++ [EStreamEnd]).
  rewrite !count_anchored_app. change (count_anchored [EStreamStart]) with 0%N.
  change (count_anchored [EStreamEnd]) with 0%N. lia.
Qed.

(* gluing two streams: the shape is kept, the documents are concatenated, the numbers of anchored nodes add up *)
Lemma glueE_shape da db :
  glueE (EStreamStart :: da ++ [EStreamEnd]) (EStreamStart :: db ++ [EStreamEnd])
  = EStreamStart :: (da ++ map (shift_ev (count_anchored da)) db) ++ [EStreamEnd].
Proof.
  unfold glueE. rewrite count_anchored_shape, app_comm_cons, removelast_last. cbn [tl].
  rewrite map_app. cbn [map shift_ev app]. rewrite <- app_assoc. reflexivity.
Qed.
Lemma count_anchored_glueE a b : stream_shape a -> stream_shape b ->
  count_anchored (glueE a b) = (count_anchored a + count_anchored b)%N.
Proof.
  intros [da ->] [db ->]. rewrite glueE_shape, !count_anchored_shape, count_anchored_app, count_anchored_shift.
  reflexivity.
Qed.

Theorem glue_allE_explicit (l : list (span * list token * list (event * span))) : forall e0,
  stream_shape e0 -> Forall (fun x => stream_shape (evs_of (snd x))) l ->
  glue_allE e0 l = EStreamStart :: glue_docs 0 (e0 :: map (fun x => evs_of (snd x)) l) ++ [EStreamEnd]
  /\ stream_shape (glue_allE e0 l).
Proof.
  induction l as [|[[spd T] E] r IH]; intros e0 H0 HL; cbn [glue_allE map snd glue_docs].
  - destruct H0 as [d0 ->]. rewrite docs_of_shape, map_shift_ev_0, app_nil_r. split; [reflexivity|exists d0; reflexivity].
  - inversion HL as [|? ? H1 HR]; subst. cbn [snd] in H1.
    assert (HS : stream_shape (glueE e0 (evs_of E))).
    { destruct H0 as [d0 ->], H1 as [d1 ->]. rewrite glueE_shape. eexists; reflexivity. }
    destruct (IH _ HS HR) as [EQ SH]. split; [|exact SH]. rewrite EQ. cbn [glue_docs].
    rewrite (count_anchored_glueE _ _ H0 H1).
    destruct H0 as [d0 E0], H1 as [d1 E1]. rewrite E0, E1, glueE_shape, !docs_of_shape, !count_anchored_shape.
    rewrite !map_shift_ev_0, !N.add_0_l, <- !app_assoc. reflexivity.
Qed.

(* the events of an accepted text have the shape: [doc_composition] of the text with itself *)
Lemma accepted_stream_shape A E : run_str A = (E, PDone) -> stream_shape (evs_of E).
Proof.
  intros HA. destruct (accepted_tokens_wf A E HA) as (ss & t & sps & ET & HSS & HNE).
  assert (AA : accepts (ss :: t ++ [(sps, TStreamEnd)]) false E) by (rewrite <- ET; exact (run_str_accepts A E HA)).
  destruct (doc_composition ss t sps sps ss t (sps, TStreamEnd) E E HSS HNE AA AA)
    as (pre & pre' & b & n & E1 & E2 & _).
  destruct pre as [|x pre]; [rewrite E1 in E2; discriminate E2|].
  rewrite E1 in E2. cbn [app] in E2. inversion E2 as [[Ex Eb]]. subst x.
  exists (evs_of pre). rewrite E1. unfold evs_of. cbn [app map fst]. rewrite map_app. reflexivity.
Qed.

Theorem text_composition_many_explicit (l : list part) A0 E0 :
  run_str A0 = (E0, PDone) -> Forall (fun x => run_str (fst x) = (snd x, PDone)) l ->
  Forall inner_ok (removelast (A0 :: map fst l)) ->
  exists EC, run_str (glue_all_text A0 (map fst l)) = (EC, PDone)
             /\ evs_of EC = EStreamStart :: glue_docs 0 (evs_of E0 :: map (fun x => evs_of (snd x)) l) ++ [EStreamEnd].
Proof.
  intros H0 HL HI. destruct (text_composition_many l A0 E0 H0 HL HI) as (EC & HC & EV).
  exists EC. split; [exact HC|]. rewrite EV.
  destruct (glue_allE_explicit (map part_entry l) (evs_of E0)) as [EQ _].
  - exact (accepted_stream_shape A0 E0 H0).
  - apply Forall_map. revert HL. apply Forall_impl. intros [A E] H. exact (accepted_stream_shape A E H).
  - rewrite EQ, map_map. reflexivity.
Qed.

Print Assumptions text_composition_many.
Print Assumptions glue_allE_explicit.
Print Assumptions text_composition_many_explicit.
