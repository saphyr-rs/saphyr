(* C05 in document context: block scalars as an instance of [ctx_scalar_end] (Proofs/ScalarContextFlow.v), on top of
   C05_case_partial ([block_scalar_case], Proofs/BlockScalarCase.v). *)
From Coq Require Import List NArith ZArith Bool Arith Lia.
Import ListNotations.
Require Import Parser SBase SPrim SScalar SFetch Pipe Drivers TokenGrammar FlowText ScanFlowProofs ScanBlockProofs ScanFrame BlockScalar BlockScalarCase ScalarContext ScalarContextFlow ScanSimpl.
Open Scope N_scope.
Open Scope mon_scope.

#[local] Arguments N.eqb : simpl nomatch.
#[local] Arguments Nat.leb : simpl nomatch.
#[local] Arguments Nat.ltb : simpl nomatch.

(* the dispatch of fetch_next_token on a block-scalar indicator *)
Definition ind_char (literal : bool) : N := if literal then 124 else 62.

Lemma rest_block F (lit : bool) cs l i ln c q adj ska k ind inds tp ta lws :
  (4 <= l)%nat -> (Z.of_N c <? ind)%Z = false ->
  fnt_rest F (mkb (ind_char lit :: cs) l (mkm i ln c) q adj ska k ind inds tp ta lws)
  = fetch_block_scalar str_ops F lit (mkb (ind_char lit :: cs) l (mkm i ln c) q adj ska k ind inds tp ta lws).
Proof.
  intros Hl Hcol. destruct (leb_look l Hl) as [L3 L2].
  unfold fnt_rest, mkb, mkm. destruct lit; cbn; (destruct (c =? 0); cbn;
    [ unfold next_is_document_start, next_is_document_end, next_3_are, assert_buflen; cbn; rewrite L3; cbn; rewrite L2; cbn;
      rewrite ?L3; cbn; rewrite ?L2; cbn; rewrite Hcol; cbn; reflexivity
    | rewrite Hcol; cbn; reflexivity ]).
Qed.

(* scan_block_scalar and fetch_block_scalar on a case of the specification *)
Definition bstyle (b : bcase) : style := if bc_literal b then Literal else Folded.

(* From a state in normal form that stands at the indicator of the case, with a stack whose non-block entries unroll to the
   parent indentation of the case: C05_case_partial gives the token and the rest of the input, the frame theorem of
   Proofs/ScanFrame.v everything else but the mark, the look-ahead and leading_whitespace. *)
Lemma scan_block_b F b l mk q adj k ind inds tp lws inds1 :
  case_ok b = true -> leading_tab_b b = false ->
  unroll_nb inds ind = (parent_z (bc_parent b), inds1) -> (case_fuel b < F)%nat ->
  exists sp l' mk' lws' ind' inds',
    scan_block_scalar str_ops F (bc_literal b) (mkb (case_block b) l mk q adj true k ind inds tp false lws)
    = Ok ((sp, TScalar (bstyle b) (case_value b)), mkb (case_rest b) l' mk' q adj true k ind' inds' tp false lws')
    /\ nbrel (ind, inds) (ind', inds').
Proof.
  intros Hok Htab Hun HF.
  destruct (block_scalar_case b (mkb (case_block b) l mk q adj true k ind inds tp false lws) F inds1 Hok Htab eq_refl Hun HF)
    as (sp & s' & E & Hrest).
  destruct (frame_b _ _ _ _ _ _ _ _ _ _ _ _ s' (Fr_scan_block_scalar str_ops F (bc_literal b) _ _ s' E))
    as (cs' & l' & mk' & ska' & lws' & ind' & inds' & -> & Hnb & Hska).
  cbn in Hrest. subst cs'. rewrite (Hska eq_refl) in E.
  exists sp, l', mk', lws', ind', inds'. split; [exact E|exact Hnb].
Qed.

Lemma case_block_head b : exists cs, case_block b = ind_char (bc_literal b) :: cs.
Proof.
  unfold case_block, render_block, header, with_breaks, ind_char. destruct (bc_literal b); cbn [app flat_map]; eexists; reflexivity.
Qed.

Lemma ind_char_first lit : node_head (ind_char lit).
Proof. destruct lit; repeat split; reflexivity. Qed.

Lemma rest_block_case F b l mk q adj ska k ind inds tp lws :
  (4 <= l)%nat -> (Z.of_N (m_col mk) <? ind)%Z = false ->
  fnt_rest F (mkb (case_block b) l mk q adj ska k ind inds tp false lws)
  = fetch_block_scalar str_ops F (bc_literal b) (mkb (case_block b) l mk q adj ska k ind inds tp false lws).
Proof.
  intros Hl Hcol. destruct (case_block_head b) as (cs & ->). destruct mk as [i ln c]. apply (rest_block F _ cs l i ln c); assumption.
Qed.

(* right of the enclosing indentation, which is the parent indentation of the case once the one-column raise is taken back *)
Definition block_side (b : bcase) (ind : Z) (inds : list indent_rec) (col : N) : Prop :=
  (Z.of_N col <? ind)%Z = false /\ fst (unroll_nb inds ind) = parent_z (bc_parent b).

Lemma block_fetches F b :
  case_ok b = true -> leading_tab_b b = false -> (case_fuel b < F)%nat ->
  fetches F (case_block b) (case_rest b) (TScalar (bstyle b) (case_value b)) (block_side b).
Proof.
  intros Hok Htab HF l mk q adj ska k ind inds tp lws Hl [Hcol Hun] Hreq.
  rewrite (rest_block_case F b l mk q adj ska k ind inds tp lws Hl Hcol).
  destruct (scan_block_b F b l mk q adj (saved ska k ind inds tp q mk) ind inds tp lws _ Hok Htab
              ltac:(rewrite <- Hun; apply surjective_pairing) HF) as (sp & l' & mk' & lws' & ind' & inds' & E & Hnb).
  exists l', mk', sp, adj, true, lws', ind', inds'. split; [|exact Hnb].
  exact (fetch_scan_b _ push_tok true _ _ _ _ _ _ _ _ _ _ _ _ _ Hreq E).
Qed.

(* a block scalar that ends the input, as the node at a token position / behind "key: " *)
Definition ends_with (F : nat) (s : sc strin) (T : list tok) : Prop :=
  exists toks, map snd toks = T /\
    forall fuel acc, (length toks < fuel)%nat -> scan_all str_ops F fuel s acc = (rev acc ++ toks, SEnded).

Lemma block_end_tok F s b c cols :
  at_tok s (case_block b) c cols -> (fst (stk cols) < Z.of_nat c)%Z -> fst (stk cols) = parent_z (bc_parent b) ->
  case_ok b = true -> leading_tab_b b = false -> case_rest b = [] -> (case_fuel b < F)%nat -> (3 <= F)%nat ->
  ends_with F s (TScalar (bstyle b) (case_value b) :: repeat TBlockEnd (length cols) ++ [TStreamEnd]).
Proof.
  intros Hat Hlt Hpar Hok Htab Hrest HF HF3.
  pose proof (block_fetches F b Hok Htab HF) as Hfe. rewrite Hrest in Hfe.
  destruct (case_block_head b) as (cs & Ecb). destruct (ind_char_first (bc_literal b)) as (Hfo & Hnz & _).
  rewrite Ecb in Hat, Hfe.
  rewrite <- (proj2 (grounded_stk cols ltac:(apply Forall_forall; auto))).
  apply (scalar_end F s _ _ _ _ _ (block_side b) (tok_before_node F s _ cs c cols Hat Hlt Hfo Hnz ltac:(lia)) HF3 Hfe);
    [|discriminate].
  intros mk ->. split; [apply Z.ltb_ge; rewrite nat_N_Z; lia | rewrite unroll_nb_stk; exact Hpar].
Qed.

Lemma block_end_below F s b top rest :
  at_below s (32 :: case_block b) (top :: rest) -> bc_parent b = Some (N.to_nat top) ->
  case_ok b = true -> leading_tab_b b = false -> case_rest b = [] -> (case_fuel b < F)%nat -> (3 <= F)%nat ->
  ends_with F s (TScalar (bstyle b) (case_value b) :: repeat TBlockEnd (length (top :: rest)) ++ [TStreamEnd]).
Proof.
  intros Hat Hpar Hok Htab Hrest HF HF3.
  pose proof (block_fetches F b Hok Htab HF) as Hfe. rewrite Hrest in Hfe.
  destruct (case_block_head b) as (cs & Ecb). destruct (ind_char_first (bc_literal b)) as (Hfo & Hnz & _).
  rewrite Ecb in Hat, Hfe.
  rewrite <- (proj2 (grounded_below top rest)).
  apply (scalar_end F s _ _ _ _ _ (block_side b) (below_before_node F s _ cs top rest Hat Hfo Hnz ltac:(lia)) HF3 Hfe);
    [|discriminate].
  intros mk Hc. split; [apply Z.ltb_ge; lia | rewrite unroll_nb_below, Hpar; cbn [parent_z stk fst]; rewrite N_nat_Z; reflexivity].
Qed.

(* the fuel of the pipeline covers the fuel of a case *)
Definition fmax (raw : list rline) (z : nat) : nat := fold_right (fun (l : rline) m => Nat.max (fst l + length (snd l)) m) z raw.

Lemma fmax_base raw z : fmax raw z = Nat.max z (fmax raw O).
Proof. induction raw as [|l r IH]; cbn [fmax fold_right]; [lia|]. fold (fmax r z). fold (fmax r O). lia. Qed.

Lemma with_breaks_len brk t : (length t <= length (with_breaks brk t))%nat.
Proof.
  unfold with_breaks. induction t as [|c t IH]; [cbn; lia|]. cbn [flat_map]. rewrite app_length. cbn [length].
  destruct (c =? 10); [destruct (brk =? 1); [cbn; lia|destruct (brk =? 2); cbn; lia]|cbn; lia].
Qed.

Lemma line_len n (l : rline) : (fst l + length (snd l) <= length (render_line n (classify n l)))%nat.
Proof.
  destruct l as [k s]. unfold classify. cbn [fst snd]. destruct s as [|c r].
  - destruct (Nat.leb_spec k n); cbn [render_line]; unfold spaces; rewrite ?app_length, repeat_length; cbn [length]; lia.
  - cbn [render_line]. unfold spaces. rewrite app_length, repeat_length. cbn [length]. lia.
Qed.

Lemma lines_len n raw :
  (length raw + fmax raw O <= length (flat_map (fun l => LF :: render_line n l) (map (classify n) raw)))%nat.
Proof.
  induction raw as [|l r IH]; [cbn; lia|]. cbn [map flat_map length fmax fold_right]. fold (fmax r O).
  rewrite app_length. pose proof (line_len n l). cbn [length]. lia.
Qed.

Lemma first_indent_le raw k : first_text_indent raw = Some k -> (k <= fmax raw O)%nat.
Proof.
  induction raw as [|[j s] r IH]; [discriminate|]. cbn [first_text_indent fmax fold_right fst snd]. fold (fmax r O).
  destruct s as [|c s']; [intros H; specialize (IH H); lia|]. intros [= ->]. lia.
Qed.
Lemma longest_le raw : (longest raw <= fmax raw O)%nat.
Proof. induction raw as [|[j s] r IH]; [cbn; lia|]. unfold longest in *. cbn [fold_right fmax fst snd]. fold (fmax r O). lia. Qed.

Lemma case_fuel_block b : case_ok b = true -> (bc_parent b = None \/ bc_parent b = Some O) ->
  (case_fuel b < 2 * length (case_block b) + 10)%nat.
Proof.
  intros Hok Hpar.
  pose proof (case_ok_facts b (S (case_fuel b)) Hok ltac:(lia)) as Hf. destruct Hf as [_ _ _ _ _ _ _ Hexp _ _].
  unfold case_fuel. fold (fmax (bc_raw b) (case_indent b)). rewrite fmax_base.
  pose proof (with_breaks_len (bc_brk b) (render_block (case_indent b) (bc_literal b) (bc_chomp b) (bc_explicit b) (bc_digit_first b)
                                            (bc_hc b) (case_lines b) (bc_eof b))) as HL.
  fold (case_block b) in HL. unfold render_block in HL. rewrite !app_length in HL.
  pose proof (lines_len (case_indent b) (bc_raw b)) as HLL. fold (case_lines b) in HLL.
  assert (Hh : (1 <= length (header (bc_literal b) (bc_chomp b) (bc_explicit b) (bc_digit_first b)))%nat /\
               ((case_indent b <= Nat.max (fmax (bc_raw b) O) 1)%nat \/
                ((case_indent b <= 9)%nat /\ (2 <= length (header (bc_literal b) (bc_chomp b) (bc_explicit b) (bc_digit_first b)))%nat))).
  { unfold header. split; [cbn [length]; lia|].
    destruct (bc_explicit b) as [d|] eqn:Ee.
    - right. destruct (Hexp d eq_refl) as [Hd _]. split.
      + unfold case_indent, content_indent. rewrite Ee. destruct Hpar as [-> | ->]; lia.
      + cbn [length]. destruct (bc_digit_first b); rewrite app_length; cbn [length]; lia.
    - left. unfold case_indent, content_indent. rewrite Ee.
      destruct (first_text_indent (bc_raw b)) as [k|] eqn:Ef.
      + pose proof (first_indent_le _ _ Ef). lia.
      + pose proof (longest_le (bc_raw b)). destruct Hpar as [-> | ->]; cbn [parent_min]; lia. }
  destruct Hh as [Hh1 Hh2]. lia.
Qed.

Lemma case_text_len b : (length (case_block b) <= length (case_text b))%nat.
Proof. rewrite case_text_split, app_length. lia. Qed.

Lemma with_breaks_nolf brk t : forallb (fun c => negb (c =? 10)) t = true -> with_breaks brk t = t.
Proof.
  unfold with_breaks. induction t as [|c t IH]; [reflexivity|]. cbn [forallb flat_map]. intros H. apply andb_prop in H as [Hc Ht].
  apply negb_true_iff in Hc. rewrite Hc, (IH Ht). reflexivity.
Qed.

Lemma word_nolf w : forallb wch w = true -> forallb (fun c => negb (c =? 10)) w = true.
Proof.
  intros H. apply forallb_forall. intros c Hc. rewrite forallb_forall in H. specialize (H c Hc).
  destruct (wch_facts c H) as (Hb & _). destruct (blankz_facts c Hb) as (_ & _ & H10 & _). rewrite H10. reflexivity.
Qed.

(* the whole scanner *)
(* what the case says of the text in front of the scalar, for each place *)
Lemma case_text_place b p : place_ok p -> bc_prefix b = in_place p [] -> case_text b = in_place p (case_block b).
Proof.
  intros Hp Hpre. rewrite case_text_split, Hpre. destruct p as [| |kw]; cbn [in_place place_ok] in *.
  - reflexivity.
  - rewrite with_breaks_nolf by reflexivity. reflexivity.
  - destruct (key_ok_word kw Hp) as (c0 & w & -> & Hw & _). rewrite with_breaks_nolf; [rewrite <- app_assoc; reflexivity|].
    rewrite forallb_app, (word_nolf _ Hw). reflexivity.
Qed.

Definition place_parent (p : place) : option nat := match p with Top => None | _ => Some O end.

Lemma block_side_at b p : bc_parent b = place_parent p -> side_at (block_side b) p.
Proof.
  intros Hpar. unfold block_side. rewrite Hpar. destruct p; cbn [side_at place_parent]; [split; reflexivity..|].
  intros c Hc. split; [apply Z.ltb_ge; lia|reflexivity].
Qed.

Lemma block_fuel_place b p : case_ok b = true -> bc_parent b = place_parent p ->
  (case_fuel b < 2 * length (in_place p (case_block b)) + 10)%nat.
Proof.
  intros Hok Hpar.
  pose proof (case_fuel_block b Hok ltac:(rewrite Hpar; destruct p; [left|right..]; reflexivity)) as H.
  destruct p; cbn [in_place]; rewrite ?app_length; cbn [length]; lia.
Qed.

(* the document is the scalar / its only entry / the value of its only pair *)
Lemma scan_block_place b p :
  place_ok p -> case_ok b = true -> leading_tab_b b = false -> bc_parent b = place_parent p -> bc_prefix b = in_place p [] ->
  case_rest b = [] ->
  exists toks, scan_str (case_text b) = (toks, SEnded) /\
               map snd toks = wrap false false (around p [TScalar (bstyle b) (case_value b)]).
Proof.
  intros Hp Hok Htab Hpar Hpre Hrest.
  rewrite (case_text_place b p Hp Hpre). destruct (case_block_head b) as (cs & Ecb).
  pose proof (block_fetches _ b Hok Htab (block_fuel_place b p Hok Hpar)) as Hfe. rewrite Hrest, Ecb in Hfe. rewrite Ecb.
  exact (ctx_scalar_end p _ cs (TScalar (bstyle b) (case_value b)) (block_side b) Hp (ind_char_first _) ltac:(discriminate) Hfe
           (block_side_at b p Hpar)).
Qed.

(* T-top: the document IS one block scalar *)
Theorem scan_block_top b :
  case_ok b = true -> leading_tab_b b = false -> bc_parent b = None -> bc_prefix b = [] -> case_rest b = [] ->
  exists toks, scan_str (case_text b) = (toks, SEnded) /\
               map snd toks = wrap false false [TScalar (bstyle b) (case_value b)].
Proof. intros Hok Htab. exact (scan_block_place b Top I Hok Htab). Qed.

(* T-entry: the only entry of a top-level block sequence *)
Theorem scan_block_entry b :
  case_ok b = true -> leading_tab_b b = false -> bc_parent b = Some O -> bc_prefix b = [45; 32] -> case_rest b = [] ->
  exists toks, scan_str (case_text b) = (toks, SEnded) /\
               map snd toks = wrap false false [TBlockSequenceStart; TBlockEntry; TScalar (bstyle b) (case_value b); TBlockEnd].
Proof. intros Hok Htab. exact (scan_block_place b Entry I Hok Htab). Qed.

(* T-value: the value of the only pair of a top-level block mapping with a one-word plain key *)
Theorem scan_block_value b kw :
  case_ok b = true -> leading_tab_b b = false -> bc_parent b = Some O -> key_ok kw = true -> bc_prefix b = kw ++ [58; 32] ->
  case_rest b = [] ->
  exists toks, scan_str (case_text b) = (toks, SEnded) /\
               map snd toks = wrap false false [TBlockMappingStart; TKey; TScalar Plain kw; TValue; TScalar (bstyle b) (case_value b); TBlockEnd].
Proof. intros Hok Htab Hpar Hkw. exact (scan_block_place b (Value kw) Hkw Hok Htab Hpar). Qed.

(* text -> events *)
(* the scalar ends the input: a final line break or none (Spec/BlockScalar.v: EofNewline / EofNone) *)
Definition ends_input (b : bcase) : bool := match bc_eof b with EofRest _ => false | _ => true end.
Lemma ends_input_rest b : ends_input b = true -> case_rest b = [].
Proof. unfold ends_input, case_rest. destruct (bc_eof b); [reflexivity|reflexivity|discriminate]. Qed.

Definition scalar_node (b : bcase) : ltree := LScalar no_props (bstyle b) (case_value b).

Theorem run_block_top b :
  case_ok b = true -> leading_tab_b b = false -> bc_parent b = None -> bc_prefix b = [] -> ends_input b = true ->
  map fst (fst (run_str (case_text b)))
  = [EStreamStart; EDocumentStart false; EScalar (case_value b) (bstyle b) 0 None; EDocumentEnd; EStreamEnd]
  /\ snd (run_str (case_text b)) = PDone.
Proof.
  intros Hok Htab Hpar Hpre Hend.
  exact (run_of_scan _ (scalar_node b) (scan_block_top b Hok Htab Hpar Hpre (ends_input_rest b Hend)) eq_refl eq_refl ltac:(cbn; lia)).
Qed.

Theorem run_block_entry b :
  case_ok b = true -> leading_tab_b b = false -> bc_parent b = Some O -> bc_prefix b = [45; 32] -> ends_input b = true ->
  map fst (fst (run_str (case_text b)))
  = [EStreamStart; EDocumentStart false; ESequenceStart 0 None; EScalar (case_value b) (bstyle b) 0 None; ESequenceEnd;
     EDocumentEnd; EStreamEnd]
  /\ snd (run_str (case_text b)) = PDone.
Proof.
  intros Hok Htab Hpar Hpre Hend.
  exact (run_of_scan _ (LBSeq no_props [scalar_node b]) (scan_block_entry b Hok Htab Hpar Hpre (ends_input_rest b Hend))
           eq_refl eq_refl ltac:(cbn; lia)).
Qed.

Theorem run_block_value b kw :
  case_ok b = true -> leading_tab_b b = false -> bc_parent b = Some O -> key_ok kw = true -> bc_prefix b = kw ++ [58; 32] ->
  ends_input b = true ->
  map fst (fst (run_str (case_text b)))
  = [EStreamStart; EDocumentStart false; EMappingStart 0 None; EScalar kw Plain 0 None; EScalar (case_value b) (bstyle b) 0 None;
     EMappingEnd; EDocumentEnd; EStreamEnd]
  /\ snd (run_str (case_text b)) = PDone.
Proof.
  intros Hok Htab Hpar Hkw Hpre Hend.
  exact (run_of_scan _ (LBMap no_props [(true, lword kw, (true, scalar_node b))])
           (scan_block_value b kw Hok Htab Hpar Hkw Hpre (ends_input_rest b Hend)) eq_refl eq_refl ltac:(cbn; lia)).
Qed.
