(* C15 tail independence of the scanner (see ScanShift.v): the BLOCK SCALAR family - the walk of ScanLockBlock.v at
   the lock [shf_lock d].  Chomping compares the line of the current mark with the captured start, two marks of the
   same side, both shifted by [sh_l d] ([MS_line_eqb]). *)
Require Import ScanShift.
Require ScanLockBlock.

Theorem scan_block_scalar_ok d : shf_scan_block_scalar d.
Proof. exact (ScanLockBlock.scan_block_scalar_ok (shf_lock d)). Qed.

Check scan_block_scalar_ok.
Print Assumptions scan_block_scalar_ok.
