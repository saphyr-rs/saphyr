(* Joint proof "the scanner never panics on a buffered input of any capacity >= 8" (see SCANSAFE.md):
   the family of directives, tags and anchors (Model/SDir.v).

   Every function of the family only reads / consumes input and moves the mark: that is [ScanFrame.Fr_scan_*], from
   which the three contracts take their [keeps] half.  What is walked here is the buffered length; every lemma has
   the form
       (forall r s', <buffered length> -> Q r s') -> wp (f ...) Q s.
   The modelled u32-overflow panic (site 120) in [scan_version_directive_number] is shown unreachable with the loop
   invariant [val < 10 ^ len]. *)
From Coq Require Import List NArith ZArith Bool Arith Lia.
Import ListNotations.
Require Import Parser SBase SPrim SDir SScalar SFetch SBuf ScanWP ScanSafePrim.
Local Open Scope nat_scope.
Arguments Nat.ltb : simpl never.
Arguments Nat.leb : simpl never.
Arguments Nat.eqb : simpl never.
Arguments Nat.sub : simpl never.

(* the generated constant (Gen/Consts.v, from scanner.rs) *)
Lemma VERSION_DIGITS_MAX_9 : VERSION_DIGITS_MAX = 9%N.
Proof. reflexivity. Qed.
Lemma pow_10_9 : (10 ^ 9 = 1000000000)%N.
Proof. reflexivity. Qed.
Lemma is_digit_val c : is_digit c = true -> (c - 48 <= 9)%N.
Proof.
  unfold is_digit. intros H. apply andb_prop in H. destruct H as [H1 H2].
  apply N.leb_le in H1. apply N.leb_le in H2. lia.
Qed.

Section Dir.
Variable cap : nat.
Hypothesis cap_ge : 8 <= cap.
Hypothesis H_ws : spec_skip_ws_to_eol cap.
Notation bops := (ScanWP.bops cap).
Notation st := (sc bufin).

(* scan_uri_escapes: at most 5 rounds of [look 3], three peeks, [skip 3] *)
Lemma wp_uri_escapes mk (Q : chr -> st -> Prop) s :
  (forall c s', Q c s') -> wp (scan_uri_escapes bops mk) Q s.
Proof.
  intros HQ. cbv beta delta [scan_uri_escapes].
  match goal with |- wp (?g 5 0%N 0%N 0%N true) _ _ =>
    cut (forall n w ln cd fs s, wp (g n w ln cd fs) Q s); [intros H; apply H|] end.
  clear s. induction n as [|n IH]; intros w ln cd fs s; [exact I|].
  cbv beta iota zeta.
  apply wp_bind. apply (wp_look cap cap_ge); [lia|]. intros s1 _ B1 _ _.
  apply wp_bind. apply (wp_peek cap cap_ge); [lia|]. intros c0.
  apply wp_bind. apply (wp_peekn cap cap_ge); [lia|]. intros c.
  apply wp_bind. apply (wp_peekn cap cap_ge); [lia|]. intros nc.
  dif; [apply wp_fail|].
  apply wp_bind.
  match goal with |- wp _ ?QQ _ => assert (HC : forall r, QQ r s1) end.
  { intros [w' cd']. cbv beta iota zeta.
    apply wp_bind. apply (wp_skip_n_non_blank cap cap_ge); [lia|]. intros s2 _ _.
    dif.
    - dif; [apply wp_ret; apply HQ|apply wp_fail].
    - apply IH. }
  destruct fs; repeat dif; try apply wp_fail; match goal with |- wp (ret ?x) _ _ => exact (HC x) end.
Qed.

(* tags *)
(* NB: the three main theorems use [Proof using cap_ge H_ws] so that, after the section, all of them take
   [cap], [cap_ge] and [H_ws] (only [safe_scan_directive] really needs [H_ws]). *)
Lemma wp_tag_handle F d mk (Q : list chr -> st -> Prop) s :
  (forall r s', Q r s') -> wp (scan_tag_handle bops F d mk) Q s.
Proof.
  intros HQ. unfold scan_tag_handle.
  apply wp_bind. apply (wp_look_ch cap cap_ge). intros c s1 _ _ _.
  dif; [apply wp_fail|].
  apply wp_bind. apply (wp_skip_non_blank cap cap_ge). intros s2 _ _.
  apply wp_bind. apply (wp_in_fetch_while_alpha_buf cap cap_ge). intros r s3 B3 _.
  apply wp_bind. apply wp_adv_mark. intros s4 _ B4.
  apply wp_bind. apply (wp_peek cap cap_ge); [lia|]. intros c'.
  dif.
  - apply wp_bind. apply (wp_skip_non_blank cap cap_ge). intros s5 _ _. apply wp_ret. apply HQ.
  - dif; [apply wp_fail|apply wp_ret; apply HQ].
Qed.

Lemma wp_uri_loop F p mk acc (Q : list chr * N -> st -> Prop) s :
  (forall r s', 1 <= bl s' -> Q r s') -> wp (uri_loop bops F p mk acc) Q s.
Proof.
  intros HQ. unfold uri_loop.
  match goal with |- wp (?g F acc 0%N) _ _ =>
    cut (forall f a n s, wp (g f a n) Q s); [intros H; apply H|] end.
  clear s. induction f as [|f IH]; intros a n s; [exact I|].
  cbv beta iota zeta.
  apply wp_bind. apply (wp_look_ch cap cap_ge). intros c s1 _ B1 _.
  dif; [|apply wp_ret; apply HQ; exact B1].
  dif.
  - apply wp_bind. apply wp_uri_escapes. intros e s2. apply IH.
  - apply wp_bind. apply (wp_skip_non_blank cap cap_ge). intros s2 _ _. apply IH.
Qed.

Lemma wp_tag_prefix F mk (Q : list chr -> st -> Prop) s :
  (forall r s', 1 <= bl s' -> Q r s') -> wp (scan_tag_prefix bops F mk) Q s.
Proof.
  intros HQ. unfold scan_tag_prefix.
  apply wp_bind. apply (wp_look_ch cap cap_ge). intros c s1 _ _ _.
  apply wp_bind.
  match goal with |- wp _ ?QQ _ => assert (HC : forall acc s', QQ acc s') end.
  { intros acc s'. cbv beta.
    apply wp_bind. apply wp_uri_loop. intros r s2 B2. apply wp_ret. apply HQ; exact B2. }
  dif.
  - apply wp_bind. apply (wp_skip_non_blank cap cap_ge). intros s2 _ _. apply wp_ret. apply HC.
  - dif; [apply wp_fail|]. dif.
    + apply wp_bind. apply wp_uri_escapes. intros e s2. apply wp_ret. apply HC.
    + apply wp_bind. apply (wp_skip_non_blank cap cap_ge). intros s2 _ _. apply wp_ret. apply HC.
Qed.

Lemma wp_verbatim_tag F mk (Q : list chr -> st -> Prop) s :
  (forall r s', Q r s') -> wp (scan_verbatim_tag bops F mk) Q s.
Proof.
  intros HQ. unfold scan_verbatim_tag.
  apply wp_bind. apply (wp_skip_non_blank cap cap_ge). intros s1 _ _.
  apply wp_bind. apply (wp_skip_non_blank cap cap_ge). intros s2 _ _.
  apply wp_bind. apply wp_uri_loop. intros r s3 B3.
  apply wp_bind. apply (wp_peek cap cap_ge); [lia|]. intros c.
  dif; [apply wp_fail|].
  apply wp_bind. apply (wp_skip_non_blank cap cap_ge). intros s4 _ _. apply wp_ret. apply HQ.
Qed.

Lemma wp_tag_shorthand_suffix F head mk (Q : list chr -> st -> Prop) s :
  (forall r s', Q r s') -> wp (scan_tag_shorthand_suffix bops F head mk) Q s.
Proof.
  intros HQ. unfold scan_tag_shorthand_suffix. cbv beta zeta.
  apply wp_bind. apply wp_uri_loop. intros r s1 _.
  dif; [apply wp_fail|apply wp_ret; apply HQ].
Qed.

Theorem safe_scan_tag : spec_scan_tag cap.
Proof using cap_ge H_ws.
  intros F s. apply wp_post_keeps; [apply ScanFrame.Fr_scan_tag|]. unfold scan_tag.
  apply wp_bind. apply wp_mark.
  apply wp_bind. apply (wp_look cap cap_ge); [lia|]. intros s1 _ B1 _ _.
  apply wp_bind. apply (wp_nth_char_is cap cap_ge); [lia|]. intros v.
  apply wp_bind.
  match goal with |- wp _ ?QQ _ => assert (HC : forall hs s', QQ hs s') end.
  { intros hs s'. cbv beta.
    apply wp_bind. apply (wp_look_ch cap cap_ge). intros c s2 _ _ _.
    apply wp_bind. apply wp_gets.
    dif; [|apply wp_fail].
    apply wp_bind. apply wp_mark. apply wp_ret. lia. }
  destruct v.
  - apply wp_bind. apply wp_verbatim_tag. intros sfx s2. apply wp_ret. apply HC.
  - apply wp_bind. apply wp_tag_handle. intros h s2.
    dif.
    + apply wp_bind. apply wp_tag_shorthand_suffix. intros sfx s3. apply wp_ret. apply HC.
    + apply wp_bind. apply wp_tag_shorthand_suffix. intros sfx s3. destruct sfx; apply wp_ret; apply HC.
Qed.

(* anchors and aliases *)
Theorem safe_scan_anchor : spec_scan_anchor cap.
Proof using cap_ge H_ws.
  intros F alias s _. apply wp_post_keeps; [apply ScanFrame.Fr_scan_anchor|]. unfold scan_anchor.
  apply wp_bind. apply wp_mark.
  apply wp_bind. apply (wp_skip_non_blank cap cap_ge). intros s1 _ _.
  apply wp_bind.
  match goal with |- wp (?g F []) ?QQ _ =>
    set (Q' := QQ);
    assert (HC : forall r s', Q' r s');
    [|cut (forall f acc s', wp (g f acc) Q' s'); [intros H; apply H|]] end.
  { intros r s'. unfold Q'. destruct r; [apply wp_fail|].
    apply wp_bind. apply wp_mark. apply wp_ret. lia. }
  induction f as [|f IH]; intros acc s'; [exact I|].
  cbv beta iota zeta.
  apply wp_bind. apply (wp_look_ch cap cap_ge). intros c s2 _ _ _.
  dif.
  - apply wp_bind. apply (wp_skip_non_blank cap cap_ge). intros s3 _ _. apply IH.
  - apply wp_ret. apply HC.
Qed.

(* directives *)
(* The u32 accumulator cannot overflow: at most VERSION_DIGITS_MAX = 9 digits are accumulated, so the value stays
   below 10^9 < 2^32 (panic site 120 is unreachable). *)
Lemma wp_version_number F mk (Q : N -> st -> Prop) s :
  (forall r s', 1 <= bl s' -> Q r s') -> wp (scan_version_directive_number bops F mk) Q s.
Proof.
  intros HQ. unfold scan_version_directive_number.
  match goal with |- wp (?g F 0%N 0%N) _ _ =>
    cut (forall f val len s, (val < 10 ^ len)%N -> wp (g f val len) Q s);
    [intros H; apply H; reflexivity|] end.
  clear s. induction f as [|f IH]; intros val len s Hv; [exact I|].
  cbv beta iota zeta.
  apply wp_bind. apply (wp_look_ch cap cap_ge). intros c s1 _ B1 _.
  destruct (is_digit c) eqn:Ed.
  - difE El; [apply wp_fail|].
    apply N.ltb_ge in El. rewrite VERSION_DIGITS_MAX_9 in El.
    assert (Hv' : (val * 10 + (c - 48) < 10 ^ (len + 1))%N).
    { rewrite N.add_1_r, N.pow_succ_r'. pose proof (is_digit_val c Ed) as Hd. lia. }
    apply wp_bind. difE Eo.
    + apply wp_panic_absurd. apply N.ltb_lt in Eo.
      pose proof (N.pow_le_mono_r 10 (len + 1) 9 ltac:(lia) El) as Hp. rewrite pow_10_9 in Hp. lia.
    + apply wp_ret. apply wp_bind. apply (wp_skip_non_blank cap cap_ge). intros s2 _ _.
      apply IH; assumption.
  - dif; [apply wp_fail|apply wp_ret; apply HQ; exact B1].
Qed.

Lemma wp_version_value F mk (Q : token -> st -> Prop) s :
  (forall r s', 1 <= bl s' -> Q r s') -> wp (scan_version_directive_value bops F mk) Q s.
Proof.
  intros HQ. unfold scan_version_directive_value.
  apply wp_bind. apply (wp_in_skip_while_blank_buf cap cap_ge). intros n s1 _ _.
  apply wp_bind. apply wp_adv_mark. intros s2 _ _.
  apply wp_bind. apply wp_version_number. intros major s3 B3.
  apply wp_bind. apply (wp_peek cap cap_ge); [lia|]. intros c.
  dif; [apply wp_fail|].
  apply wp_bind. apply (wp_skip_non_blank cap cap_ge). intros s4 _ _.
  apply wp_bind. apply wp_version_number. intros minor s5 B5.
  apply wp_bind. apply wp_mark. apply wp_ret. apply HQ; exact B5.
Qed.

Lemma wp_tag_directive_value F mk (Q : token -> st -> Prop) s :
  (forall r s', 1 <= bl s' -> Q r s') -> wp (scan_tag_directive_value bops F mk) Q s.
Proof.
  intros HQ. unfold scan_tag_directive_value.
  apply wp_bind. apply (wp_in_skip_while_blank_buf cap cap_ge). intros n s1 _ _.
  apply wp_bind. apply wp_adv_mark. intros s2 _ _.
  apply wp_bind. apply wp_tag_handle. intros h s3.
  apply wp_bind. apply (wp_in_skip_while_blank_buf cap cap_ge). intros n' s4 _ _.
  apply wp_bind. apply wp_adv_mark. intros s5 _ _.
  apply wp_bind. apply wp_tag_prefix. intros p s6 _.
  apply wp_bind. apply (wp_look cap cap_ge); [lia|]. intros s7 _ B7 _ _.
  apply wp_bind. apply (wp_peek cap cap_ge); [lia|]. intros c.
  dif; [|apply wp_fail].
  apply wp_bind. apply wp_mark. apply wp_ret. apply HQ; exact B7.
Qed.

Lemma wp_directive_name F (Q : list chr -> st -> Prop) s :
  (forall r s', 1 <= bl s' -> Q r s') -> wp (scan_directive_name bops F) Q s.
Proof.
  intros HQ. unfold scan_directive_name.
  apply wp_bind. apply wp_mark.
  apply wp_bind. apply (wp_in_fetch_while_alpha_buf cap cap_ge). intros r s1 B1 _.
  apply wp_bind. apply wp_adv_mark. intros s2 _ B2.
  destruct (fst r) as [|x l]; [apply wp_fail|].
  apply wp_bind. apply (wp_peek cap cap_ge); [lia|]. intros c.
  dif; [apply wp_ret; apply HQ; lia|apply wp_fail].
Qed.

Theorem safe_scan_directive : spec_scan_directive cap.
Proof using cap_ge H_ws.
  intros F s _. apply wp_post_keeps; [apply ScanFrame.Fr_scan_directive|]. unfold scan_directive.
  apply wp_bind. apply wp_mark.
  apply wp_bind. apply (wp_skip_non_blank cap cap_ge). intros s1 _ _.
  apply wp_bind. apply wp_directive_name. intros name s2 _.
  apply wp_bind.
  match goal with |- wp _ ?QQ _ => assert (HC : forall tk s', QQ tk s') end.
  { intros tk s'. cbv beta.
    apply wp_bind. eapply wp_mono; [apply H_ws|]. intros tw s3 [_ B3].
    apply wp_bind. apply (wp_next_is cap cap_ge); [lia|]. intros b.
    destruct b; [|apply wp_fail].
    apply wp_bind. apply (wp_look cap cap_ge); [lia|]. intros s4 _ B4 _ _.
    apply wp_bind. apply (wp_skip_linebreak cap cap_ge); [lia|]. intros s5 _ _.
    apply wp_ret. lia. }
  dif.
  - apply wp_version_value. intros tk s3 _. apply HC.
  - dif.
    + apply wp_tag_directive_value. intros tk s3 _. apply HC.
    + apply wp_bind. apply (wp_in_skip_while_non_breakz_buf cap cap_ge). intros n s3 _ _.
      apply wp_bind. apply wp_adv_mark. intros s4 _ _.
      apply wp_bind. apply wp_mark. apply wp_ret. apply HC.
Qed.
End Dir.

Print Assumptions safe_scan_directive.
Print Assumptions safe_scan_tag.
Print Assumptions safe_scan_anchor.
Check safe_scan_directive.
Check safe_scan_tag.
Check safe_scan_anchor.
