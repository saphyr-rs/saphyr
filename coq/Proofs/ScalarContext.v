(* C05 / C04 in DOCUMENT context, generic part: a scalar that ends the input.

   The function-level theorems (C05_case_partial, C04_*_full_proved) say what scan_block_scalar / scan_plain_scalar /
   scan_flow_scalar return from a scanner state that stands at the scalar.  This file provides what is needed around them
   to state theorems about TEXTS (run_str):
     - the end of the input behind a scalar whose token is still in the queue, from ANY mark / look-ahead / simple-key state
       the scalar scanner may have left ([end_unit]): the possibly pending simple key of the scalar, the two BlockEnd batches
       (unroll_indent (column) in fetch_next_token, unroll_indent (-1) in fetch_stream_end), StreamEnd, the queue handed out;
       the indentation stack is only required to be [grounded] (strictly above -1 down to a bottom of -1), which the frame
       theorem of the character-level scanners (Proofs/ScanFrame.v: the stack is unchanged or has lost its non-block
       entries) preserves;
     - the two steps that fetch_block_scalar, fetch_flow_scalar and fetch_plain_scalar share, on a state in normal form
       ([fetch_scan_b], [frame_b]), and what becomes of the key they save ([saved_free], [saved_stale]).
   It reuses the normal form [mkb], the queue relation [delivers] and the stack lemmas of Proofs/ScanBlockProofs.v. *)
From Coq Require Import List NArith ZArith Bool Arith Lia.
Import ListNotations.
Require Import Parser SBase SPrim SFetch ScanFlowProofs ScanBlockProofs ScanFrame ScanSimpl.
Open Scope N_scope.
Open Scope mon_scope.

#[local] Arguments unroll_indent : simpl never.

(* grounded indentation stacks *)
(* every open level is above -1, the bottom is -1 (the stream level) *)
Fixpoint grounded (ind : Z) (inds : list indent_rec) : Prop :=
  match inds with
  | [] => ind = (-1)%Z
  | i :: r => (-1 < ind)%Z /\ grounded (in_indent i) r
  end.
(* the number of block collections on the stack (records that are closed by a BlockEnd) *)
Fixpoint nbe (inds : list indent_rec) : nat :=
  match inds with
  | [] => O
  | i :: r => if in_needs_block_end i then S (nbe r) else nbe r
  end.

Lemma grounded_ge ind inds : grounded ind inds -> (-1 <= ind)%Z.
Proof. destruct inds as [|i r]; cbn; lia. Qed.

(* the hypothesis of [save_key_b] *)
Lemma grounded_req ind inds col : grounded ind inds -> (ind =? Z.of_N col)%Z = true -> inds <> [].
Proof. intros Hg E ->. cbn in Hg. subst ind. apply Z.eqb_eq in E. lia. Qed.

Lemma unroll_grounded : forall inds fuel col ind, grounded ind inds -> (-1 <= col)%Z -> (length inds < fuel)%nat ->
  exists n ind' inds', unroll_pure fuel col ind inds = Some (n, ind', inds') /\ grounded ind' inds' /\
                       (n + nbe inds' = nbe inds)%nat /\ (ind' <= col \/ inds' = [])%Z.
Proof.
  induction inds as [|i r IH]; intros fuel col ind Hg Hc Hf; (destruct fuel as [|fuel]; [cbn in Hf; lia|]).
  - cbn in Hg. subst ind. cbn [unroll_pure]. replace (col <? -1)%Z with false by (symmetry; apply Z.ltb_ge; lia).
    exists O, (-1)%Z, []. repeat split. right. reflexivity.
  - cbn [grounded] in Hg. destruct Hg as [Hi Hg]. cbn [unroll_pure]. destruct (Z.ltb_spec col ind) as [Hlt|Hge].
    + destruct (IH fuel col (in_indent i) Hg Hc ltac:(cbn in Hf; lia)) as (n & ind' & inds' & E & Hg' & Hn & Hle).
      rewrite E. cbn [nbe]. destruct (in_needs_block_end i).
      * exists (S n), ind', inds'. repeat split; [exact Hg'|lia|exact Hle].
      * exists n, ind', inds'. repeat split; [exact Hg'|lia|exact Hle].
    + exists O, ind, (i :: r). repeat split; [exact Hi|exact Hg|left; exact Hge].
Qed.

(* unrolling to -1 empties a grounded stack *)
Lemma unroll_grounded_all inds fuel ind : grounded ind inds -> (length inds < fuel)%nat ->
  unroll_pure fuel (-1)%Z ind inds = Some (nbe inds, (-1)%Z, []).
Proof.
  revert fuel ind. induction inds as [|i r IH]; intros fuel ind Hg Hf; (destruct fuel as [|fuel]; [cbn in Hf; lia|]).
  - cbn in Hg. subst ind. reflexivity.
  - cbn [grounded] in Hg. destruct Hg as [Hi Hg]. cbn [unroll_pure].
    replace (-1 <? ind)%Z with true by (symmetry; apply Z.ltb_lt; exact Hi).
    rewrite (IH fuel (in_indent i) Hg ltac:(cbn in Hf; lia)). cbn [nbe]. destruct (in_needs_block_end i); reflexivity.
Qed.

Lemma unroll_nb_grounded : forall inds ind, grounded ind inds ->
  grounded (fst (unroll_nb inds ind)) (snd (unroll_nb inds ind)) /\ nbe (snd (unroll_nb inds ind)) = nbe inds.
Proof.
  induction inds as [|i r IH]; intros ind Hg; [split; [exact Hg|reflexivity]|].
  cbn [unroll_nb nbe]. destruct (in_needs_block_end i) eqn:E.
  - cbn [fst snd nbe]. rewrite E. split; [exact Hg|reflexivity].
  - destruct Hg as [_ Hg]. apply IH, Hg.
Qed.

Lemma nbrel_grounded ind inds ind' inds' : grounded ind inds -> nbrel (ind, inds) (ind', inds') ->
  grounded ind' inds' /\ nbe inds' = nbe inds.
Proof.
  intros Hg [E|E].
  - injection E as -> ->. split; [exact Hg|reflexivity].
  - cbn [fst snd] in E. pose proof (unroll_nb_grounded inds ind Hg) as H. rewrite <- E in H. exact H.
Qed.

Lemma grounded_stk cols : Forall (fun c => True) cols -> grounded (fst (stk cols)) (snd (stk cols)) /\ nbe (snd (stk cols)) = length cols.
Proof.
  intros _. induction cols as [|c r [IH1 IH2]]; [split; reflexivity|].
  cbn [stk fst snd grounded nbe in_needs_block_end in_indent length]. split; [split; [lia|exact IH1]|rewrite IH2; reflexivity].
Qed.
Lemma grounded_below top rest : grounded (Z.of_N top + 1)%Z (nbl (Z.of_N top) :: snd (stk (top :: rest)))
  /\ nbe (nbl (Z.of_N top) :: snd (stk (top :: rest))) = length (top :: rest).
Proof.
  destruct (grounded_stk (top :: rest) ltac:(apply Forall_forall; auto)) as [G N1].
  split; [|exact N1]. split; [lia|exact G].
Qed.

(* the frame of the character-level scanners, on a state in normal form *)
Lemma frame_b cs l mk q adj ska k ind inds tp ta lws s' : frame (mkb cs l mk q adj ska k ind inds tp ta lws) s' ->
  exists cs' l' mk' ska' lws' ind' inds',
    s' = mkb cs' l' mk' q adj ska' k ind' inds' tp ta lws' /\ nbrel (ind, inds) (ind', inds') /\ (ska = true -> ska' = true).
Proof.
  destruct s' as [[cs' l'] mk' toks ss se adj' ska' sks' ind' inds' fl tp' ta' lws' ifms']. unfold frame, mkb. cbn.
  intros (A1 & A2 & A3 & A4 & A5 & A6 & A7 & A8 & A9 & A10 & A11). subst.
  exists cs', l', mk', ska', lws', ind', inds'. split; [reflexivity|split; assumption].
Qed.

(* the common start of fetch_block_scalar, fetch_flow_scalar and fetch_plain_scalar: the key is saved, simple_key_allowed is
   set, the scalar is scanned *)
Lemma fetch_scan_b {A} (scan : @M strin token) (rest : token -> @M strin A) (a : bool) cs l mk q adj ska k ind inds tp lws t s1 :
  ((ind =? Z.of_N (m_col mk))%Z = true -> inds <> []) ->
  scan (mkb cs l mk q adj a (saved ska k ind inds tp q mk) ind inds tp false lws) = Ok (t, s1) ->
  (save_simple_key ;;; modify (set_ska a) ;;; t <- scan ;; rest t) (mkb cs l mk q adj ska k ind inds tp false lws) = rest t s1.
Proof.
  intros Hreq E. cbn [bind]. rewrite (save_key_b cs l mk q adj ska k ind inds tp false lws Hreq).
  unfold mkb in *. cbn. rewrite E. reflexivity.
Qed.

(* the end of the input *)
Definition eof_mark (mk : marker) : marker :=
  if m_col mk =? 0 then mk else {| m_index := m_index mk; m_line := m_line mk + 1; m_col := 0 |}.

Lemma stream_end_g l mk q adj ska k ind inds tp ta lws n ind' inds' :
  (sk_required k && sk_possible k) = false ->
  unroll_pure (S (length inds)) (-1)%Z ind inds = Some (n, ind', inds') ->
  fetch_stream_end (mkb [] l mk q adj ska k ind inds tp ta lws)
  = Ok (tt, mkb [] l (eof_mark mk) ((q ++ repeat (be_tok (eof_mark mk)) n) ++ [se_tok (eof_mark mk)]) adj false (unposs k) ind' inds' tp ta lws).
Proof.
  intros Hk Hun. unfold fetch_stream_end, eof_mark. unfold mkb at 1. cbn. destruct (m_col mk =? 0); cbn; rewrite Hk; cbn.
  - rw_b (unroll_b (-1)%Z [] l mk q adj ska (unposs k) ind inds tp ta lws n ind' inds' Hun). cbn.
    unfold remove_simple_key. cbn. reflexivity.
  - rw_b (unroll_b (-1)%Z [] l {| m_index := m_index mk; m_line := m_line mk + 1; m_col := 0 |} q adj ska (unposs k) ind inds tp ta lws n ind' inds' Hun). cbn.
    unfold remove_simple_key. cbn. reflexivity.
Qed.

(* a key that cannot make the scanner fail: not required, or no longer possible *)
Definition key_free (k : simple_key) : Prop := (sk_required k && sk_possible k) = false.
Lemma key_free_stale k mk : key_free k -> (stale_k k mk && sk_required k) = false.
Proof. unfold key_free, stale_k. destruct (sk_required k), (sk_possible k); cbn; intros H; try reflexivity; try discriminate H; apply andb_false_r. Qed.
Lemma key_free_staled k mk : key_free k -> key_free (staled k mk).
Proof. unfold key_free, staled. intros H. destruct (stale_k k mk); [cbn; apply andb_false_r|exact H]. Qed.
Lemma key_free_not_required k : sk_required k = false -> key_free k.
Proof. unfold key_free. intros ->. reflexivity. Qed.
Lemma key_free_not_possible k : sk_possible k = false -> key_free k.
Proof. unfold key_free. intros ->. apply andb_false_r. Qed.

(* what save_simple_key leaves where no key is required and the old one is no longer possible ... *)
Lemma saved_free ska k ind inds tp q mk : sk_possible k = false -> req ind inds (m_col mk) = false ->
  key_free (saved ska k ind inds tp q mk).
Proof.
  intros Hk Hr. unfold saved. destruct ska; [apply key_free_not_required, Hr|apply key_free_not_possible, Hk].
Qed.
(* ... has gone stale on every later line *)
Lemma saved_stale ska k ind inds tp q mk mk' : sk_possible k = false -> req ind inds (m_col mk) = false ->
  m_line mk < m_line mk' ->
  (stale_k (saved ska k ind inds tp q mk) mk' && sk_required (saved ska k ind inds tp q mk)) = false
  /\ sk_possible (staled (saved ska k ind inds tp q mk) mk') = false.
Proof.
  intros Hk Hr Hl. unfold saved, staled. destruct ska.
  - unfold stale_k, newkey. cbn [sk_possible sk_required sk_mark andb]. rewrite Hr, andb_false_r.
    replace (m_line mk <? m_line mk') with true by (symmetry; apply N.ltb_lt, Hl). split; reflexivity.
  - rewrite (stale_k_not_possible k mk' Hk). split; [reflexivity|exact Hk].
Qed.

(* fetch_next_token at the end of the input: whatever is queued stays in front; the open block collections are closed in
   two batches; StreamEnd *)
Lemma end_fetch F l mk q adj ska k ind inds tp lws :
  (1 <= F)%nat -> key_free k -> grounded ind inds ->
  exists l' bes,
    map snd bes = repeat TBlockEnd (nbe inds) /\ no_se bes /\
    fetch_next_token str_ops F (mkb [] l mk q adj ska k ind inds tp false lws)
    = Ok (tt, mkb [] l' (eof_mark mk) ((q ++ bes) ++ [se_tok (eof_mark mk)]) adj false (unposs (staled k mk)) (-1)%Z [] tp false lws).
Proof.
  intros HF Hrq Hg.
  destruct (unroll_grounded inds (S (length inds)) (Z.of_N (m_col mk)) ind Hg ltac:(lia) ltac:(lia))
    as (n1 & ind1 & inds1 & E1 & Hg1 & Hn1 & _).
  pose proof (unroll_grounded_all inds1 (S (length inds1)) ind1 Hg1 ltac:(lia)) as E2.
  exists (Nat.max (Nat.max (Nat.max l 1) 1) 4), (repeat (be_tok mk) n1 ++ repeat (be_tok (eof_mark mk)) (nbe inds1)).
  split; [rewrite map_app, !map_snd_be, <- repeat_app; f_equal; exact Hn1|].
  split; [apply no_se_app; apply no_se_be|].
  erewrite fnt_b; [ | apply skip_eof; exact HF | apply key_free_stale, Hrq | exact E1 ].
  rewrite tail_eof.
  rewrite (stream_end_g _ mk _ adj ska (staled k mk) ind1 inds1 tp false lws (nbe inds1) (-1)%Z []);
    [ | apply key_free_staled, Hrq | exact E2 ].
  rewrite <- !app_assoc. reflexivity.
Qed.

(* the queue ends with StreamEnd and no key is possible: everything is handed out and the scanner has ended *)
Lemma end_drain F ts : forall cs l mk m adj ska k ind inds tp lws fuel acc,
  (1 <= F)%nat -> no_se ts -> sk_possible k = false -> (length ts + 1 < fuel)%nat ->
  scan_all str_ops F fuel (mkb cs l mk (ts ++ [se_tok m]) adj ska k ind inds tp false lws) acc
  = (rev acc ++ ts ++ [se_tok m], SEnded).
Proof.
  intros cs l mk m adj ska k ind inds tp lws fuel acc HF Hts Hk Hfuel.
  pose proof (drain_b_r F ts cs l mk [se_tok m] adj ska k ind inds tp lws HF Hts Hk) as D.
  assert (Ef : exists f2, fuel = (length ts + S (S f2))%nat) by (exists (fuel - length ts - 2)%nat; lia).
  destruct Ef as (f2 & ->). rewrite D. unfold se_tok. rewrite end_pop by (assumption || lia).
  cbn [rev app]. rewrite rev_app_distr, rev_involutive. cbn [rev app]. rewrite <- !app_assoc. reflexivity.
Qed.

(* a non-empty queue without a possible key: next_token does not fetch *)
Lemma ntb_ready F cs l mk h r adj ska k ind inds tp lws : sk_possible k = false ->
  exists res, ntb F 1 (mkb cs l mk (h :: r) adj ska k ind inds tp false lws) = Ok res.
Proof.
  intros Hk. erewrite ntb_pop; [ | reflexivity | apply need_none; exact Hk ].
  unfold popk, mkb. cbn. destruct h as [sp kd]. destruct kd; eexists; reflexivity.
Qed.

(* one or two fetches that end in such a state: next_token of the state before is next_token of the state after *)
Lemma next_skip1 F (s s1 s2 : sc strin) res :
  (2 <= F)%nat -> sc_token_available s = false -> sc_stream_end s = false ->
  need_comp s = Ok (true, s1) -> fetch_next_token str_ops F s1 = Ok (tt, s2) ->
  sc_token_available s2 = false -> sc_stream_end s2 = false -> ntb F 1 s2 = Ok res ->
  next_token str_ops F s = next_token str_ops F s2.
Proof.
  intros HF Hta Hse Hn Hf Hta2 Hse2 Hr.
  rewrite (nt_of_ntb F 1 s2 res Hse2 ltac:(lia) Hr).
  apply (nt_of_ntb F 2); [exact Hse | exact HF |].
  rewrite (ntb_fetch F 1 s s1 s2 Hta Hn Hf Hta2). exact Hr.
Qed.

Lemma scan_all_next F (s s2 : sc strin) fuel acc :
  next_token str_ops F s = next_token str_ops F s2 -> scan_all str_ops F fuel s acc = scan_all str_ops F fuel s2 acc.
Proof. intros H. destruct fuel as [|fuel]; [reflexivity|]. rewrite !scan_all_S, H. reflexivity. Qed.

(* the end of the input, nothing queued *)
Lemma end_scan_nil F l mk adj ska k ind inds tp lws :
  (3 <= F)%nat -> key_free k -> grounded ind inds ->
  exists toks, map snd toks = repeat TBlockEnd (nbe inds) ++ [TStreamEnd] /\
    forall fuel acc, (length toks < fuel)%nat ->
      scan_all str_ops F fuel (mkb [] l mk [] adj ska k ind inds tp false lws) acc = (rev acc ++ toks, SEnded).
Proof.
  intros HF Hrq Hg.
  destruct (end_fetch F l mk [] adj ska k ind inds tp lws ltac:(lia) Hrq Hg) as (l' & bes & Hm & Hbes & Hf).
  cbn [app] in Hf.
  exists (bes ++ [se_tok (eof_mark mk)]). split; [rewrite map_app, Hm; reflexivity|].
  intros fuel acc Hfuel. rewrite app_length in Hfuel. cbn [length] in Hfuel.
  assert (Hr : exists res, ntb F 1 (mkb [] l' (eof_mark mk) (bes ++ [se_tok (eof_mark mk)]) adj false (unposs (staled k mk)) (-1)%Z [] tp false lws) = Ok res).
  { destruct bes as [|b bs]; apply ntb_ready; reflexivity. }
  destruct Hr as (res & Hr).
  assert (E : next_token str_ops F (mkb [] l mk [] adj ska k ind inds tp false lws)
               = next_token str_ops F (mkb [] l' (eof_mark mk) (bes ++ [se_tok (eof_mark mk)]) adj false (unposs (staled k mk)) (-1)%Z [] tp false lws)).
  { eapply next_skip1; [lia | reflexivity | reflexivity | apply need_empty_b | exact Hf | reflexivity | reflexivity | exact Hr]. }
  rewrite (scan_all_next F _ _ fuel acc E).
  apply end_drain; [lia | exact Hbes | reflexivity | unfold token in *; lia].
Qed.

(* THE END UNIT: a fetch has queued exactly one token [t] (a scalar) and consumed the rest of the input; the key saved for
   the scalar may still be possible (single-line scalars) or not; the mark, the look-ahead, simple_key_allowed and
   leading_whitespace are arbitrary.  The scanner delivers t, one BlockEnd per open block collection, StreamEnd. *)
Lemma end_unit F (s : sc strin) l mk t adj ska k ind inds tp lws :
  (3 <= F)%nat -> canon s ->
  fetch_next_token str_ops F s = Ok (tt, mkb [] l mk [t] adj ska k ind inds tp false lws) ->
  snd t <> TStreamEnd -> key_free k -> grounded ind inds ->
  exists toks, map snd toks = snd t :: repeat TBlockEnd (nbe inds) ++ [TStreamEnd] /\
    forall fuel acc, (length toks < fuel)%nat -> scan_all str_ops F fuel s acc = (rev acc ++ toks, SEnded).
Proof.
  intros HF (Hq0 & Hta0 & Hse0) Hf Ht Hrq Hg.
  set (S2 := mkb [] l mk [t] adj ska k ind inds tp false lws) in *.
  assert (Hst : (stale_k k mk && sk_required k) = false) by (apply key_free_stale, Hrq).
  pose proof (need_b [] l mk t [] adj ska k ind inds tp false lws Hst) as Hn. cbn zeta in Hn. fold (staled k mk) in Hn. fold S2 in Hn.
  destruct (sk_possible (staled k mk) && (sk_token_number (staled k mk) =? tp)) eqn:Hp; cbn [orb] in Hn.
  - (* the key of the scalar is pending: the end of the input is fetched first *)
    destruct (end_fetch F l mk [t] adj ska (staled k mk) ind inds tp lws ltac:(lia) (key_free_staled k mk Hrq) Hg)
      as (l' & bes & Hm & Hbes & Hf2).
    rewrite staled_idem in Hf2. cbn [app] in Hf2.
    exists (t :: bes ++ [se_tok (eof_mark mk)]). split; [cbn [map]; rewrite map_app, Hm; reflexivity|].
    intros fuel acc Hfuel. cbn [length] in Hfuel. rewrite app_length in Hfuel. cbn [length] in Hfuel.
    set (S3 := mkb [] l' (eof_mark mk) (t :: bes ++ [se_tok (eof_mark mk)]) adj false (unposs (staled k mk)) (-1)%Z [] tp false lws) in *.
    destruct (ntb_ready F [] l' (eof_mark mk) t (bes ++ [se_tok (eof_mark mk)]) adj false (unposs (staled k mk)) (-1)%Z [] tp lws eq_refl) as (res & Hr).
    fold S3 in Hr.
    assert (E : next_token str_ops F s = next_token str_ops F S3).
    { rewrite (nt_of_ntb F 1 S3 res eq_refl ltac:(lia) Hr).
      apply (nt_of_ntb F 3); [exact Hse0 | exact HF |].
      rewrite (ntb_fetch F 2 s s S2 Hta0 (need_canon s Hq0) Hf eq_refl).
      rewrite (ntb_fetch F 1 S2 _ S3 eq_refl Hn Hf2 eq_refl). exact Hr. }
    rewrite (scan_all_next F s S3 fuel acc E). unfold S3.
    change (t :: bes ++ [se_tok (eof_mark mk)]) with ((t :: bes) ++ [se_tok (eof_mark mk)]).
    apply end_drain; [lia | constructor; [exact Ht|exact Hbes] | reflexivity | cbn [length]; unfold token in *; lia].
  - (* the key is stale or not possible: the scalar is handed out, then the end of the input is fetched *)
    destruct (end_scan_nil F l mk adj ska (staled k mk) ind inds (tp + 1) lws HF (key_free_staled k mk Hrq) Hg)
      as (toks & Hm & Hscan).
    exists (t :: toks). split; [cbn [map]; rewrite Hm; reflexivity|].
    intros fuel acc Hfuel. cbn [length] in Hfuel. destruct fuel as [|fuel]; [lia|].
    rewrite scan_all_S.
    rewrite (nt_of_ntb F 2 s (Some t, mkb [] l mk [] adj ska (staled k mk) ind inds (tp + 1) false lws) Hse0 ltac:(lia)).
    + rewrite Hscan by lia. cbn [rev]. rewrite <- app_assoc. reflexivity.
    + rewrite (ntb_fetch F 1 s s S2 Hta0 (need_canon s Hq0) Hf eq_refl).
      unfold S2. apply ntb_pop_b; [exact Ht | exact Hst | exact Hp].
Qed.
