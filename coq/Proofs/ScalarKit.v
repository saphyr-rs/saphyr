(* What the proofs about the scalar scanners (block, plain, quoted) share: steps of the scanner monad, marker
   arithmetic, the character classes by cases, runs of line feeds, the longest numeric escape. *)
From Coq Require Import List NArith ZArith Bool Arith Lia.
Import ListNotations.
Require Import Parser SBase SPrim SScalar.
Open Scope N_scope.

Lemma bind_Ok {I A B} (x : @M I A) (f : A -> @M I B) s a s' : x s = Ok (a, s') -> bind x f s = f a s'.
Proof. intros H. unfold bind. rewrite H. reflexivity. Qed.
Lemma bind_Err {I A B} (x : @M I A) (f : A -> @M I B) s e k : x s = Err e k -> bind x f s = Err e k.
Proof. intros H. unfold bind. rewrite H. reflexivity. Qed.
Lemma bind_assoc {I A B C} (x : @M I A) (f : A -> @M I B) (g : B -> @M I C) s :
  bind (bind x f) g s = bind x (fun a => bind (f a) g) s.
Proof. unfold bind. destruct (x s) as [[a s']| | |]; reflexivity. Qed.
Lemma bind_congr {I A B} (x y : @M I A) (K : A -> @M I B) s s' : x s = y s' -> bind x K s = bind y K s'.
Proof. intros H. unfold bind. rewrite H. reflexivity. Qed.

Lemma adv_0 m : adv 0 m = m.
Proof. destruct m as [i l c]; unfold adv; cbn [m_index m_line m_col]. rewrite !N.add_0_r. reflexivity. Qed.
Lemma adv_adv a b m : adv a (adv b m) = adv (b + a) m.
Proof. unfold adv; cbn [m_index m_line m_col]. rewrite !N.add_assoc. reflexivity. Qed.
Lemma adv_col a m : m_col (adv a m) = m_col m + a.
Proof. reflexivity. Qed.

Lemma blank_cases c : is_blank c = true -> c = 32 \/ c = 9.
Proof. unfold is_blank. intros H. apply orb_prop in H. destruct H as [H|H]; apply N.eqb_eq in H; auto. Qed.
Lemma breakz_cases c : is_breakz c = true -> c = 10 \/ c = 13 \/ c = 0.
Proof.
  unfold is_breakz, is_break, is_z. intros H. apply orb_prop in H. destruct H as [H|H].
  - apply orb_prop in H. destruct H as [H|H]; apply N.eqb_eq in H; auto.
  - apply N.eqb_eq in H. auto.
Qed.
Lemma breakz_parts c : is_breakz c = false -> is_break c = false /\ is_z c = false.
Proof. apply orb_false_elim. Qed.
Lemma bbz_parts c : is_blank_or_breakz c = false -> is_blank c = false /\ is_break c = false /\ is_z c = false.
Proof. intros H. apply orb_false_elim in H. destruct H as [H1 H2]. split; [exact H1|exact (breakz_parts c H2)]. Qed.

Lemma rev_repeat {A} (x : A) k : rev (repeat x k) = repeat x k.
Proof. induction k as [|k IH]; [reflexivity|]. cbn [repeat rev]. rewrite IH. symmetry. apply repeat_cons. Qed.
Lemma nls_repeat n acc : nls n acc = repeat 10 (N.to_nat n) ++ acc.
Proof.
  unfold nls. induction n as [|n IH] using N.peano_ind; [reflexivity|].
  rewrite N.iter_succ, IH, N2Nat.inj_succ. reflexivity.
Qed.

(* the generated table, stated concretely (fails to compile if the generator ever emits a longer escape) *)
Lemma code_length_table_val : code_length_table = [(120, 2%nat); (117, 4%nat); (85, 8%nat)].
Proof. reflexivity. Qed.
Lemma code_length_le8 e : (code_length e <= 8)%nat.
Proof.
  unfold code_length. rewrite code_length_table_val. cbn [assocn].
  destruct (120 =? e); [lia|]. destruct (117 =? e); [lia|]. destruct (85 =? e); lia.
Qed.

(* the document-marker test on the string input: `...` or `---` followed by a blank, a break or the end of the input;
   the state is only read *)
Lemma assert_buflen_str n site (s : sc strin) : (n <= si_look (sc_in s))%nat -> assert_buflen str_ops n site s = Ok (tt, s).
Proof.
  intros H. unfold assert_buflen. change (buflen str_ops (sc_in s)) with (si_look (sc_in s)).
  destruct (Nat.ltb_spec (si_look (sc_in s)) n); [lia|reflexivity].
Qed.
Lemma next_3_are_str a b c (s : sc strin) : (3 <= si_look (sc_in s))%nat ->
  next_3_are str_ops a b c s
  = Ok ((nth 0 (si_chars (sc_in s)) 0 =? a) && (nth 1 (si_chars (sc_in s)) 0 =? b) && (nth 2 (si_chars (sc_in s)) 0 =? c), s).
Proof. intros H. unfold next_3_are. rewrite (bind_Ok _ _ _ _ _ (assert_buflen_str 3 104 s H)). reflexivity. Qed.
Lemma next_is_document_indicator_str (s : sc strin) : (4 <= si_look (sc_in s))%nat ->
  next_is_document_indicator str_ops s
  = Ok (is_blank_or_breakz (nth 3 (si_chars (sc_in s)) 0) &&
        (((nth 0 (si_chars (sc_in s)) 0 =? 46) && (nth 1 (si_chars (sc_in s)) 0 =? 46) && (nth 2 (si_chars (sc_in s)) 0 =? 46)) ||
         ((nth 0 (si_chars (sc_in s)) 0 =? 45) && (nth 1 (si_chars (sc_in s)) 0 =? 45) && (nth 2 (si_chars (sc_in s)) 0 =? 45))), s).
Proof.
  intros H. unfold next_is_document_indicator. rewrite (bind_Ok _ _ _ _ _ (assert_buflen_str 4 105 s H)).
  rewrite (bind_Ok _ _ _ _ _ (eq_refl : peekn str_ops 3 s = Ok (nth 3 (si_chars (sc_in s)) 0, s))).
  destruct (is_blank_or_breakz (nth 3 (si_chars (sc_in s)) 0)); [|reflexivity]. cbn [andb].
  rewrite (bind_Ok _ _ _ _ _ (next_3_are_str 46 46 46 s ltac:(lia))).
  destruct ((nth 0 (si_chars (sc_in s)) 0 =? 46) && (nth 1 (si_chars (sc_in s)) 0 =? 46) && (nth 2 (si_chars (sc_in s)) 0 =? 46));
    [reflexivity|].
  apply next_3_are_str. lia.
Qed.
