(* List facts that the library of Coq 8.16 lacks, and the recursions over a list of key/value pairs that the tree
   types of the model nest inside their own fixpoints.  A tree function is tied to the recursion named here by
   an equation that holds by [reflexivity]; its induction principle delivers [Forall P l] for a sequence and
   [Forall (fun kv => P (fst kv) /\ P (snd kv)) l] for a mapping, and every lemma below that lifts a property of
   the elements to the list takes its hypothesis in that form. *)
From Coq Require Import List Bool.
Import ListNotations.

(* what a nested induction principle hands to its sequence and mapping cases; passed the principle itself as f,
   it is accepted by the guard checker the way a nested [map] is *)
Definition Forall_all {A} (P : A -> Prop) (f : forall x, P x) : forall l, Forall P l :=
  fix go l := match l with [] => Forall_nil P | x :: r => Forall_cons x (f x) (go r) end.

Lemma Forall2_impl {A B} (P Q : A -> B -> Prop) :
  (forall a b, P a b -> Q a b) -> forall l l', Forall2 P l l' -> Forall2 Q l l'.
Proof. intros H l l'. induction 1; constructor; auto. Qed.

Lemma Forall2_rev {A B} (P : A -> B -> Prop) l l' : Forall2 P l l' -> Forall2 P (rev l) (rev l').
Proof. induction 1; cbn [rev]; [constructor|]. apply Forall2_app; [assumption|constructor; [assumption|constructor]]. Qed.

Lemma Forall2_of_map {A A' B B'} (f : A -> A') (g : B -> B') (R : A' -> B' -> Prop) l l' :
  Forall2 R (map f l) (map g l') -> Forall2 (fun a b => R (f a) (g b)) l l'.
Proof. revert l'. induction l as [|a l IH]; intros [|b l'] H; inversion H; subst; constructor; auto. Qed.

Lemma Forall2_map_eq {A B} (f : A -> B) l l' : Forall2 (fun a b => f a = b) l l' -> map f l = l'.
Proof. induction 1 as [|a b l l' H _ IH]; [reflexivity|]. cbn [map]. rewrite H, IH. reflexivity. Qed.

Lemma forallb_app_true {A} (p : A -> bool) a b : forallb p a = true -> forallb p b = true -> forallb p (a ++ b) = true.
Proof. intros H1 H2. rewrite forallb_app, H1, H2. reflexivity. Qed.

Lemma forallb_map_true {A B} (p : B -> bool) (f : A -> B) l :
  Forall (fun x => p (f x) = true) l -> forallb p (map f l) = true.
Proof. induction 1 as [|x r Hx _ IH]; [reflexivity|]. cbn [map forallb]. rewrite Hx, IH. reflexivity. Qed.

Lemma flat_map_map_Forall {A B C} (h : A -> list C) (h' : B -> list C) (f : A -> B) l :
  Forall (fun x => h x = h' (f x)) l -> flat_map h l = flat_map h' (map f l).
Proof. induction 1 as [|x r Hx _ IH]; [reflexivity|]. cbn [map flat_map]. rewrite Hx, IH. reflexivity. Qed.

Lemma tl_skipn {A} n (l : list A) : tl (skipn n l) = skipn (S n) l.
Proof.
  revert l; induction n as [|n IH]; intros l; [destruct l; reflexivity|].
  destruct l as [|a l]; [reflexivity|]. exact (IH l).
Qed.

Lemma nth_skipn {A} n i (l : list A) d : nth i (skipn n l) d = nth (n + i) l d.
Proof.
  revert l; induction n as [|n IH]; intros l; [reflexivity|].
  destruct l as [|a l]; [destruct i; reflexivity|]. exact (IH l).
Qed.

Lemma skipn_add {A} a b (l : list A) : skipn a (skipn b l) = skipn (b + a) l.
Proof.
  revert l; induction b as [|b IH]; intros l; [reflexivity|].
  destruct l as [|x l]; [destruct a; reflexivity|]. exact (IH l).
Qed.

Lemma in_firstn {A} (x : A) n l : In x (firstn n l) -> In x l.
Proof. intros H. rewrite <- (firstn_skipn n l). apply in_or_app. left. exact H. Qed.

Lemma last_cons_ne {A} (x : A) l d : l <> [] -> last (x :: l) d = last l d.
Proof. destruct l; [congruence|]. reflexivity. Qed.

Lemma last_In {A} (l : list A) d : l <> [] -> In (last l d) l.
Proof.
  induction l as [|x r IH]; [congruence|]. intros _. destruct r as [|y r']; [left; reflexivity|].
  right. apply IH. discriminate.
Qed.

Local Notation both P := (fun kv => P (fst kv) /\ P (snd kv)).

(* the four recursions over pairs: map, concatenation, conjunction, pairwise comparison *)
Section Recursions.
  Context {A B : Type}.
  Section Map.
    Variable f : A -> B.
    Fixpoint pmap (l : list (A * A)) : list (B * B) :=
      match l with [] => [] | (k, v) :: r => (f k, f v) :: pmap r end.
  End Map.
  Section Flat.
    Variable h : A -> list B.
    Fixpoint pflat (l : list (A * A)) : list B :=
      match l with [] => [] | (k, v) :: r => h k ++ h v ++ pflat r end.
  End Flat.
  Section All.
    Variable p : A -> bool.
    Fixpoint pall (l : list (A * A)) : bool :=
      match l with [] => true | (k, v) :: r => p k && p v && pall r end.
  End All.
  Section Eqb.
    Variable e : A -> A -> bool.
    Fixpoint list_eqb (l l' : list A) : bool :=
      match l, l' with [], [] => true | x :: r, y :: r' => e x y && list_eqb r r' | _, _ => false end.
    Fixpoint pairs_eqb (l l' : list (A * A)) : bool :=
      match l, l' with
      | [], [] => true
      | (k, v) :: r, (k', v') :: r' => e k k' && e v v' && pairs_eqb r r'
      | _, _ => false
      end.
  End Eqb.
End Recursions.

Section Pairs.
  Context {A B : Type}.

  Lemma pmap_map (f : A -> B) l : pmap f l = map (fun p => (f (fst p), f (snd p))) l.
  Proof. induction l as [|[k v] r IH]; [reflexivity|]. cbn [pmap map fst snd]. rewrite IH. reflexivity. Qed.
  Lemma pmap_app (f : A -> B) a b : pmap f (a ++ b) = pmap f a ++ pmap f b.
  Proof. rewrite !pmap_map. apply map_app. Qed.
  Lemma pmap_ext_Forall (f g : A -> B) l : Forall (both (fun x => f x = g x)) l -> pmap f l = pmap g l.
  Proof.
    induction 1 as [|[k v] r [Hk Hv] _ IH]; [reflexivity|]. cbn [fst snd] in Hk, Hv. cbn [pmap]. rewrite Hk, Hv, IH. reflexivity.
  Qed.

  Lemma pall_Forall (p : A -> bool) l : pall p l = true <-> Forall (both (fun x => p x = true)) l.
  Proof.
    induction l as [|[k v] r IH]; cbn [pall].
    - split; [constructor|reflexivity].
    - rewrite !andb_true_iff, IH. split.
      + intros [[Hk Hv] Hr]. constructor; [split; assumption|exact Hr].
      + intros H. inversion H as [|? ? [Hk Hv] Hr]; subst. auto.
  Qed.

  (* comparisons: an equivalence when the test on the elements is one *)
  Section Eqb.
    Variable e : A -> A -> bool.

    Lemma list_eqb_Forall2 l l' : list_eqb e l l' = true <-> Forall2 (fun a b => e a b = true) l l'.
    Proof.
      revert l'. induction l as [|x r IH]; intros [|y r']; cbn [list_eqb];
        try (split; [discriminate|intros H; inversion H]).
      - split; [constructor|reflexivity].
      - rewrite andb_true_iff, IH. split.
        + intros [Hx Hr]. constructor; assumption.
        + intros H. inversion H; subst. auto.
    Qed.
    Lemma pairs_eqb_Forall2 l l' :
      pairs_eqb e l l' = true <->
      Forall2 (fun p q => e (fst p) (fst q) = true /\ e (snd p) (snd q) = true) l l'.
    Proof.
      revert l'. induction l as [|[k v] r IH]; intros [|[k' v'] r']; cbn [pairs_eqb];
        try (split; [discriminate|intros H; inversion H]).
      - split; [constructor|reflexivity].
      - rewrite !andb_true_iff, IH. split.
        + intros [[Hk Hv] Hr]. constructor; [split; assumption|exact Hr].
        + intros H. inversion H as [|? ? ? ? [Hk Hv] Hr]; subst. auto.
    Qed.

    Lemma list_eqb_refl l : Forall (fun x => e x x = true) l -> list_eqb e l l = true.
    Proof. induction 1 as [|x r Hx _ IH]; [reflexivity|]. cbn [list_eqb]. rewrite Hx, IH. reflexivity. Qed.
    Lemma pairs_eqb_refl l : Forall (both (fun x => e x x = true)) l -> pairs_eqb e l l = true.
    Proof.
      induction 1 as [|[k v] r [Hk Hv] _ IH]; [reflexivity|]. cbn [fst snd] in Hk, Hv. cbn [pairs_eqb].
      rewrite Hk, Hv, IH. reflexivity.
    Qed.

    Lemma list_eqb_sym l : Forall (fun x => forall y, e x y = e y x) l -> forall l', list_eqb e l l' = list_eqb e l' l.
    Proof.
      induction 1 as [|x r Hx _ IH]; intros [|y r']; cbn [list_eqb]; try reflexivity. rewrite Hx, IH. reflexivity.
    Qed.
    Lemma pairs_eqb_sym l :
      Forall (both (fun x => forall y, e x y = e y x)) l -> forall l', pairs_eqb e l l' = pairs_eqb e l' l.
    Proof.
      induction 1 as [|[k v] r [Hk Hv] _ IH]; intros [|[k' v'] r']; cbn [pairs_eqb]; try reflexivity.
      cbn [fst snd] in Hk, Hv. rewrite Hk, Hv, IH. reflexivity.
    Qed.

    (* equal lists have equal images under what the test on the elements respects *)
    Lemma list_eqb_flat_map {C} (h : A -> list C) l :
      Forall (fun x => forall y, e x y = true -> h x = h y) l ->
      forall l', list_eqb e l l' = true -> length l = length l' /\ flat_map h l = flat_map h l'.
    Proof.
      induction 1 as [|x r Hx _ IH]; intros [|y r'] H; cbn [list_eqb] in H; try discriminate H; [split; reflexivity|].
      apply andb_true_iff in H. destruct H as [H1 H2]. destruct (IH _ H2) as [L E].
      cbn [length flat_map]. rewrite L, E, (Hx _ H1). split; reflexivity.
    Qed.
    Lemma pairs_eqb_pflat {C} (h : A -> list C) l :
      Forall (both (fun x => forall y, e x y = true -> h x = h y)) l ->
      forall l', pairs_eqb e l l' = true -> pflat h l = pflat h l'.
    Proof.
      induction 1 as [|[k v] r [Hk Hv] _ IH]; intros [|[k' v'] r'] H; cbn [pairs_eqb] in H; try discriminate H; [reflexivity|].
      rewrite !andb_true_iff in H. destruct H as [[H1 H2] H3]. cbn [fst snd] in Hk, Hv.
      cbn [pflat]. rewrite (Hk _ H1), (Hv _ H2), (IH _ H3). reflexivity.
    Qed.

    (* the test is equality of normal forms when it is so on the elements *)
    Lemma list_eqb_spec {C} (n : A -> C) l :
      Forall (fun x => forall y, e x y = true <-> n x = n y) l ->
      forall l', list_eqb e l l' = true <-> map n l = map n l'.
    Proof.
      induction 1 as [|x r Hx _ IH]; intros [|y r']; cbn [list_eqb map]; try (split; congruence).
      rewrite andb_true_iff, Hx, IH. split.
      - intros [E1 E2]. congruence.
      - intros H. inversion H. auto.
    Qed.
  End Eqb.
End Pairs.

Section PairsMap.
  Context {A B : Type}.

  Lemma pmap_pmap {C} (f : A -> B) (g : B -> C) l : pmap g (pmap f l) = pmap (fun x => g (f x)) l.
  Proof. induction l as [|[k v] r IH]; [reflexivity|]. cbn [pmap]. rewrite IH. reflexivity. Qed.

  Lemma pairs_eqb_spec (e : A -> A -> bool) (n : A -> B) l :
    Forall (both (fun x => forall y, e x y = true <-> n x = n y)) l ->
    forall l', pairs_eqb e l l' = true <-> pmap n l = pmap n l'.
  Proof.
    induction 1 as [|[k v] r [Hk Hv] _ IH]; intros [|[k' v'] r']; cbn [pairs_eqb pmap]; try (split; congruence).
    cbn [fst snd] in Hk, Hv. rewrite !andb_true_iff, Hk, Hv, IH. split.
    - intros [[E1 E2] E3]. congruence.
    - intros H. inversion H. auto.
  Qed.

  Lemma pflat_pmap {C} (h : A -> list C) (h' : B -> list C) (f : A -> B) l :
    Forall (both (fun x => h x = h' (f x))) l -> pflat h l = pflat h' (pmap f l).
  Proof.
    induction 1 as [|[k v] r [Hk Hv] _ IH]; [reflexivity|]. cbn [fst snd] in Hk, Hv. cbn [pmap pflat].
    rewrite Hk, Hv, IH. reflexivity.
  Qed.

  Lemma pall_pmap_true (p : B -> bool) (f : A -> B) l :
    Forall (both (fun x => p (f x) = true)) l -> pall p (pmap f l) = true.
  Proof.
    induction 1 as [|[k v] r [Hk Hv] _ IH]; [reflexivity|]. cbn [fst snd] in Hk, Hv. cbn [pmap pall].
    rewrite Hk, Hv, IH. reflexivity.
  Qed.

  (* a map of the elements that preserves the test (as an equation, or from left to right) preserves it on lists *)
  Section Hom.
    Variables (e : A -> A -> bool) (e' : B -> B -> bool) (f : A -> B).

    Lemma list_eqb_map l :
      Forall (fun x => forall y, e x y = e' (f x) (f y)) l ->
      forall l', list_eqb e l l' = list_eqb e' (map f l) (map f l').
    Proof.
      induction 1 as [|x r Hx _ IH]; intros [|y r']; cbn [list_eqb map]; try reflexivity. rewrite Hx, IH. reflexivity.
    Qed.
    Lemma pairs_eqb_pmap l :
      Forall (both (fun x => forall y, e x y = e' (f x) (f y))) l ->
      forall l', pairs_eqb e l l' = pairs_eqb e' (pmap f l) (pmap f l').
    Proof.
      induction 1 as [|[k v] r [Hk Hv] _ IH]; intros [|[k' v'] r']; cbn [pairs_eqb pmap]; try reflexivity.
      cbn [fst snd] in Hk, Hv. rewrite Hk, Hv, IH. reflexivity.
    Qed.

    Lemma list_eqb_map_true l :
      Forall (fun x => forall y, e x y = true -> e' (f x) (f y) = true) l ->
      forall l', list_eqb e l l' = true -> list_eqb e' (map f l) (map f l') = true.
    Proof.
      induction 1 as [|x r Hx _ IH]; intros [|y r'] H; cbn [list_eqb] in H; try discriminate H; [reflexivity|].
      apply andb_true_iff in H. destruct H as [H1 H2]. cbn [map list_eqb]. rewrite (Hx _ H1), (IH _ H2). reflexivity.
    Qed.
    Lemma pairs_eqb_pmap_true l :
      Forall (both (fun x => forall y, e x y = true -> e' (f x) (f y) = true)) l ->
      forall l', pairs_eqb e l l' = true -> pairs_eqb e' (pmap f l) (pmap f l') = true.
    Proof.
      induction 1 as [|[k v] r [Hk Hv] _ IH]; intros [|[k' v'] r'] H; cbn [pairs_eqb] in H; try discriminate H; [reflexivity|].
      rewrite !andb_true_iff in H. destruct H as [[H1 H2] H3]. cbn [fst snd] in Hk, Hv.
      cbn [pmap pairs_eqb]. rewrite (Hk _ H1), (Hv _ H2), (IH _ H3). reflexivity.
    Qed.
  End Hom.
End PairsMap.
