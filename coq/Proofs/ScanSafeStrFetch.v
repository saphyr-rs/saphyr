(* STRING input: the token-level skeleton of the scanner preserves the skeleton invariant and never panics.  The walk
   is that of ScanSafeSkel.v, read with the lookahead counter [lk] as the number of available characters, over the
   contracts of the character-level entry points proved in ScanSafeStrPrim/Dir/Scalar.v.  On this side the only
   input-side obligations are the lookahead-counter lower bounds of next_is_document_start/end (sites 106/107),
   established by the [look 4] of fetch_next_token. *)
From Coq Require Import List NArith ZArith Bool Arith Lia.
Import ListNotations.
Require Import Parser SBase SPrim SDir SScalar SFetch Pipe C02run.
Require Import ScanSafeStrWP ScanSafeStrPrim ScanSafeStrDir ScanSafeStrScalar.
Require ScanSafeSkel.
Local Open Scope nat_scope.

Lemma insert_at_length {A} (x : A) n l l' : insert_at n x l = Some l' -> length l' = S (length l).
Proof. exact (ScanSkel.insert_at_length x n l l'). Qed.

Section Fetch.
Notation B := sops.
Notation st := (sc strin).
Notation M := (@SBase.M strin).
Notation post_keeps := (ScanSafeSkel.post_keeps lk).

(* the input operations of the skeleton, in terms of [lk] *)
Lemma lk_in (s s' : st) : sc_in s' = sc_in s -> lk s' = lk s.
Proof. unfold lk. intros ->. reflexivity. Qed.
Lemma sk_look n (Q : unit -> st -> Prop) s : n <= 4 ->
  (forall s', same_but_input s s' -> n <= lk s' -> lk s <= lk s' -> Q tt s') -> wps (look B n) Q s.
Proof. intros _ HQ. apply ws_look. intros s' Hs H1 H2 _. exact (HQ s' Hs H1 H2). Qed.
Lemma sk_peekn n (Q : chr -> st -> Prop) s : n < lk s -> (forall c, Q c s) -> wps (peekn B n) Q s.
Proof. intros _. apply ws_peekn. Qed.
Lemma sk_skip_non_blank (Q : unit -> st -> Prop) s :
  (forall s', keeps s s' -> lk s - 1 <= lk s' -> Q tt s') -> wps (skip_non_blank B) Q s.
Proof. intros HQ. apply ws_skip_non_blank. intros s' K1 E. apply HQ; [exact K1|lia]. Qed.
Lemma sk_skip_n_non_blank n (Q : unit -> st -> Prop) s :
  n <= lk s -> (forall s', keeps s s' -> lk s - n <= lk s' -> Q tt s') -> wps (skip_n_non_blank B n) Q s.
Proof. intros _ HQ. apply ws_skip_n_non_blank. intros s' K1 E. apply HQ; [exact K1|lia]. Qed.

(* ---------------- the contracts of the character-level entry points ----------------
   A contract speaks of a whole scanner function, so it is stated in the judgment of ScanSkel.v (see [wps_skel]);
   the rules above speak of one input operation each, where the two judgments agree by running it. *)
Lemma safe0_post {A} (m : M A) s : safe 0 m -> ScanSkel.wp m (post_keeps s 0) s.
Proof.
  intros H. rewrite <- wps_skel. eapply ws_mono; [apply H; lia|]. intros a s' [K1 _]. split; [exact K1|lia].
Qed.

(* [asks1 m]: [m] begins by asking for one character, so running it once that character has been asked for is the
   same run.  From there [safe 1 m] keeps the lookahead counter at 1 or more: the three whitespace skippers begin
   with [look_ch], hence end with a character available, whatever the counter was. *)
Definition asks1 {A} (m : M A) : Prop := forall s, bind (look B 1) (fun _ => m) s = m s.

Lemma asks1_look_ch {A} (f : chr -> M A) : asks1 (bind (look_ch B) f).
Proof.
  intros s. unfold look_ch, look, bind, sops. cbn [lookahead str_ops sc_in set_in upd si_look si_chars].
  rewrite <- Nat.max_assoc, Nat.max_id. reflexivity.
Qed.
Lemma asks1_bind {A C} (m : M A) (g : A -> M C) : asks1 m -> asks1 (bind m g).
Proof.
  intros E s. transitivity (bind (bind (look B 1) (fun _ => m)) g s).
  - unfold bind. destruct (look B 1 s) as [[u s1]| | |]; reflexivity.
  - unfold bind at 1 3. rewrite E. reflexivity.
Qed.
Lemma asks1_post {A} (m : M A) s : asks1 m -> safe 1 m -> ScanSkel.wp m (post_keeps s 1) s.
Proof.
  intros E Hm. rewrite <- wps_skel. unfold wps. rewrite <- E. apply ws_bind, ws_look. intros s1 H1 L1 _ _.
  eapply ws_mono; [exact (Hm s1 L1)|]. intros a s2 [K2 L2]. split; [|lia].
  eapply keeps_trans; [apply keeps_input, H1|exact K2].
Qed.

Lemma post_skip_to_next_token F s : ScanSkel.wp (skip_to_next_token B F) (post_keeps s 1) s.
Proof.
  apply asks1_post; [|apply safe_skip_to_next_token].
  destruct F; [intros s0; reflexivity|]. cbn [skip_to_next_token]. apply asks1_look_ch.
Qed.
Lemma post_skip_ws_to_eol F stb s : ScanSkel.wp (skip_ws_to_eol B F stb) (post_keeps s 1) s.
Proof.
  apply asks1_post; [|apply safe_skip_ws_to_eol].
  unfold skip_ws_to_eol. apply asks1_bind.
  destruct F; [intros s0; reflexivity|]. cbn [in_skip_ws_to_eol]. apply asks1_look_ch.
Qed.
Lemma post_skip_yaml_whitespace F s : ScanSkel.wp (skip_yaml_whitespace B F) (post_keeps s 1) s.
Proof.
  apply asks1_post; [|apply safe_skip_yaml_whitespace].
  unfold skip_yaml_whitespace. destruct F; [intros s0; reflexivity|]. apply asks1_look_ch.
Qed.

(* the skeleton walk at [strin] *)
Definition SI : st -> Prop := ScanSafeSkel.SI.
Definition fr : st -> st -> Prop := ScanSafeSkel.fr.
Definition post_si : unit -> st -> Prop := ScanSafeSkel.post_si.

(* no possible simple key points at the head of the token queue: the head may be handed out *)
Definition nokey (s : st) : Prop :=
  forall k, In k (sc_sks s) -> sk_possible k = true -> sk_token_number k <> sc_tokens_parsed s.

(* the invariant at the level of next_token / scan_all *)
Definition J (s : st) : Prop := SInv s /\ (sc_stream_start s = false -> sc_indents s = []).
Definition SInv' (s : st) : Prop := J s /\ (sc_token_available s = true -> nokey s).

Lemma si_J s : SI s -> J s.
Proof. exact (ScanSafeSkel.si_J s). Qed.

Lemma ws_stale_J (Q : unit -> st -> Prop) s :
  J s -> (forall s', J s' -> sc_stream_start s' = sc_stream_start s -> fr s s' ->
                     sc_tokens s' = sc_tokens s -> Q tt s') -> wps stale_simple_keys Q s.
Proof. exact (ScanSafeSkel.wp_stale_J Q s). Qed.

(* every character-level contract holds from the lower bound 0 *)
Notation at_str L :=
  (L strin B lk lk_in sk_look sk_peekn ws_assert_buflen sk_skip_non_blank sk_skip_n_non_blank
     post_skip_to_next_token post_skip_ws_to_eol post_skip_yaml_whitespace
     (fun F s _ => safe0_post _ s (safe_scan_directive F 0))
     (fun F s => safe0_post _ s (safe_scan_tag F 0))
     (fun F alias s _ => safe0_post _ s (safe_scan_anchor F alias 0))
     (fun F single s _ => safe0_post _ s (safe_scan_flow_scalar F single 0))
     (fun F s => safe0_post _ s (safe_scan_plain_scalar F 0))
     (fun F literal s _ => safe0_post _ s (safe_scan_block_scalar F literal 0))).

Lemma ws_fetch_next_token F s : J s -> wps (fetch_next_token B F) post_si s.
Proof. rewrite wps_skel. exact (at_str (@ScanSafeSkel.wp_fetch_next_token) F s). Qed.

Lemma ws_next_token F s : SInv' s -> wps (next_token B F) (fun _ s' => SInv' s') s.
Proof. rewrite wps_skel. exact (at_str (@ScanSafeSkel.wp_next_token) F s). Qed.

Theorem scan_all_never_panics : forall F fuel s acc n,
  SInv' s -> snd (scan_all B F fuel s acc) <> SPanic n.
Proof. exact (at_str (@ScanSafeSkel.scan_all_never_panics)). Qed.

Lemma sinv'_init (i : strin) : SInv' (init_sc i).
Proof. exact (ScanSafeSkel.sinv'_init i). Qed.

Theorem scan_init_never_panics : forall F fuel input n,
  snd (scan_all str_ops F fuel (init_sc {| si_chars := input; si_look := 0 |}) []) <> SPanic n.
Proof. intros. apply (scan_all_never_panics F fuel), sinv'_init. Qed.

Theorem run_str_never_panics : forall input n, snd (run_str input) <> PPanic n.
Proof.
  intros input n. unfold run_str. cbv zeta.
  pose proof (scan_init_never_panics (2 * length input + 10) (4 * (2 * length input + 10) + 20) input) as HS.
  destruct (scan_all str_ops _ _ _ _) as [toks se]. cbn [snd] in HS.
  pose proof (parser_run_wellformed toks false se (4 * (4 * (2 * length input + 10) + 20) + 40)) as [_ HE].
  unfold init_parser in HE. intros EP. rewrite EP in HE. cbn [end_ok] in HE. exact (HS n HE).
Qed.

End Fetch.

Print Assumptions scan_all_never_panics.
Print Assumptions scan_init_never_panics.
Print Assumptions run_str_never_panics.
