(* C09 — scalars as the emitter writes them: lengths, line breaks, and which mapping keys take the implicit form
   `key: value` (Model/Emitter.v: complex_key, is_long_key).  The positive statement that replaces the former
   refutation "implicit key of 1025 characters": every key written in the implicit form is one line of at most
   SIMPLE_KEY_MAX characters (the scanner's limit, Gen/Consts.v, re-translated from scanner.rs on every run). *)
From Coq Require Import List NArith ZArith Bool Arith Lia.
Import ListNotations.
Require Import Parser Resolver CoreSchema ResolverProofs QuotedLine Consts Emitter EmitterProofs EmitterBlock.
Open Scope N_scope.
Arguments N.eqb : simpl never.
Arguments N.leb : simpl never.
Arguments N.ltb : simpl never.
Arguments N.mul : simpl never.
Arguments N.div : simpl never.
Arguments N.sub : simpl never.

(* what the source must say (Gen/EmitterTables.v; a change of emitter.rs that drops one of these breaks here) *)
Lemma tbl_key_explicit_literal : key_explicit_literal = true.  Proof. reflexivity. Qed.
Lemma tbl_key_explicit_long : key_explicit_long = true.        Proof. reflexivity. Qed.
(* the emitter's limit is not above the scanner's *)
Lemma tbl_key_max_scanner : emit_key_max <= SIMPLE_KEY_MAX.    Proof. vm_compute. discriminate. Qed.
(* the shortcut of is_long_key: `string.len() <= (MAX - 2) / 6` is sound when no escape is longer than 6 characters
   and the quotes are 2 *)
Lemma tbl_esc_len : forallb (fun e => N.of_nat (length (snd e)) <=? emit_key_esc_max) emit_escape_table = true.
Proof. vm_compute. reflexivity. Qed.
Lemma tbl_esc_max_pos : 1 <= emit_key_esc_max.                 Proof. vm_compute. discriminate. Qed.
Lemma tbl_key_quotes : emit_key_quotes = 2 /\ emit_key_quotes <= emit_key_max.
Proof. split; [reflexivity|vm_compute; discriminate]. Qed.
(* no escape sequence contains a line feed *)
Lemma tbl_esc_no_lf : forallb (fun e => negb (existsb (N.eqb 10) (snd e))) emit_escape_table = true.
Proof. vm_compute. reflexivity. Qed.

(* lengths *)
Lemma escape_char_len c : N.of_nat (length (escape_char c)) <= emit_key_esc_max.
Proof.
  unfold escape_char. destruct (esc_lookup c emit_escape_table) as [e|] eqn:E.
  - apply esc_lookup_in in E. pose proof (proj1 (forallb_forall _ _) tbl_esc_len _ E) as H. cbn [snd] in H.
    apply N.leb_le. exact H.
  - exact tbl_esc_max_pos.
Qed.

Lemma escape_body_len (s : list N) : N.of_nat (length (escape_body s)) <= emit_key_esc_max * N.of_nat (length s).
Proof.
  unfold escape_body. induction s as [|c r IH]; [cbn; lia|].
  cbn [flat_map length]. rewrite app_length. pose proof (escape_char_len c). lia.
Qed.

Lemma escape_str_len (s : list N) : length (escape_str s) = S (S (length (escape_body s))).
Proof. unfold escape_str. cbn [length]. rewrite app_length. cbn [length]. lia. Qed.

Lemma utf8_len_ge (s : list N) : N.of_nat (length s) <= utf8_len s.
Proof.
  unfold utf8_len. induction s as [|c r IH]; [cbn; lia|]. cbn [fold_right length].
  assert (1 <= utf8_len_ch c).
  { unfold utf8_len_ch. destruct (c <? 128); [lia|]. destruct (c <? 2048); [lia|]. destruct (c <? 65536); lia. }
  lia.
Qed.

(* a string for which is_long_key answers no is emitted (quoted or plain) in at most emit_key_max characters *)
Lemma short_key_len (s : list N) : is_long_key s = false ->
  str_len (if need_quotes s then escape_str s else s) <= emit_key_max.
Proof.
  unfold is_long_key, str_len. destruct (N.leb_spec (utf8_len s) ((emit_key_max - emit_key_quotes) / emit_key_esc_max)) as [Hs|_].
  - intros _. pose proof (utf8_len_ge s) as H1. pose proof (escape_body_len s) as H2.
    pose proof tbl_esc_max_pos as H3. destruct tbl_key_quotes as [Q1 Q2].
    assert (H4 : emit_key_esc_max * ((emit_key_max - emit_key_quotes) / emit_key_esc_max) <= emit_key_max - emit_key_quotes)
      by (apply N.mul_div_le; lia).
    assert (H5 : emit_key_esc_max * N.of_nat (length s) <= emit_key_max - emit_key_quotes).
    { eapply N.le_trans; [|exact H4]. apply N.mul_le_mono_l. lia. }
    destruct (need_quotes s).
    + rewrite escape_str_len, !Nat2N.inj_succ.
      assert (X : N.of_nat (length (escape_body s)) <= emit_key_max - emit_key_quotes) by (eapply N.le_trans; eassumption).
      rewrite Q1 in X, Q2. revert Q2 X. generalize (N.of_nat (length (escape_body s))). generalize emit_key_max. intros; lia.
    + assert (N.of_nat (length s) <= emit_key_esc_max * N.of_nat (length s)).
      { rewrite <- (N.mul_1_l (N.of_nat (length s))) at 1. apply N.mul_le_mono_r. exact H3. }
      eapply N.le_trans; [eassumption|]. eapply N.le_trans; [exact H5|]. apply N.le_sub_l.
  - destruct (need_quotes s); intros H; apply N.ltb_ge in H; exact H.
Qed.

(* line feeds *)
Lemma escape_char_no_lf c : ~ In 10 (escape_char c).
Proof.
  unfold escape_char. destruct (esc_lookup c emit_escape_table) as [e|] eqn:E.
  - apply esc_lookup_in in E. pose proof (proj1 (forallb_forall _ _) tbl_esc_no_lf _ E) as H. cbn [snd] in H.
    apply negb_true_iff in H. intros X. discriminate (existsb_false_In _ _ _ H X).
  - destruct (unescaped_is_safe c E) as (_ & _ & _ & B). intros [X|[]]. subst c. discriminate B.
Qed.

Lemma escape_str_no_lf (s : list N) : ~ In 10 (escape_str s).
Proof.
  unfold escape_str, escape_body. intros [X|X]; [discriminate|]. apply in_app_or in X. destruct X as [X|[X|[]]]; [|discriminate].
  apply in_flat_map in X. destruct X as (c & _ & X). exact (escape_char_no_lf c X).
Qed.

Lemma plain_no_lf (s : list N) : need_quotes s = false -> ~ In 10 s.
Proof.
  intros H X. destruct (plain_shape s H) as (_ & _ & _ & _ & A). destruct (A 10 X) as [_ B]. apply B. cbn. tauto.
Qed.

(* integers *)
Lemma dec_rev_len fuel : forall n, (length (dec_rev fuel n) <= fuel)%nat.
Proof.
  induction fuel as [|f IH]; intros n; [cbn; lia|]. cbn [dec_rev length]. destruct (n <? 10); [cbn; lia|].
  specialize (IH (n / 10)). lia.
Qed.

Lemma size_i64 p : (Z.pos p <= 2 ^ 63)%Z -> (N.to_nat (N.size (Npos p)) <= 64)%nat.
Proof.
  intros H. pose proof (N.size_le (Npos p)) as S1. unfold N.succ_double in S1.
  assert (S2 : 2 ^ N.size (N.pos p) < 2 ^ 65).
  { eapply N.le_lt_trans; [exact S1|]. change (N.pos p~1) with (2 * N.pos p + 1).
    assert (N.pos p <= 2 ^ 63) by (apply N2Z.inj_le; rewrite N2Z.inj_pow; exact H).
    change (2 ^ 65) with (2 * (2 * 2 ^ 63)). lia. }
  apply N.pow_lt_mono_r_iff in S2; lia.
Qed.

Lemma dec_N_len p : (Z.pos p <= 2 ^ 63)%Z -> (length (dec_N (Npos p)) <= 65)%nat.
Proof.
  intros H. unfold dec_N. rewrite rev_length. pose proof (dec_rev_len (S (N.to_nat (N.size (N.pos p)))) (N.pos p)).
  pose proof (size_i64 p H). lia.
Qed.

Lemma dec_N_shape p : (Z.pos p <= 2 ^ 63)%Z ->
  dec_N (Npos p) <> [] /\ (forall c, In c (dec_N (Npos p)) -> is_dig c = true) /\ (length (dec_N (Npos p)) <= 65)%nat.
Proof.
  intros H. split; [|split; [exact (proj1 (forallb_forall _ _) (dec_N_digits _))|exact (dec_N_len p H)]].
  pose proof (dec_N_nonempty (Npos p)) as X. intros E. rewrite E in X. discriminate X.
Qed.

(* the text of an integer: an optional '-', then digits; at most 66 characters for a 64-bit integer *)
Lemma dec_Z_shape z : in_i64_b z = true ->
  exists neg digs, dec_Z z = (if neg : bool then [45] else []) ++ digs /\ digs <> []
                   /\ (forall c, In c digs -> is_dig c = true) /\ (length digs <= 65)%nat.
Proof.
  intros H. unfold in_i64_b, i64_min, i64_max in H. apply andb_true_iff in H as [H1 H2]. apply Z.leb_le in H1, H2.
  destruct z as [|p|p].
  - exists false, [48]. repeat split; [discriminate| |cbn; lia]. intros c [<-|[]]. reflexivity.
  - exists false, (dec_N (Npos p)). split; [reflexivity|]. apply dec_N_shape. lia.
  - exists true, (dec_N (Npos p)). split; [reflexivity|]. apply dec_N_shape. lia.
Qed.

(* floats (text taken from Rust's formatting: wf_node) *)
(* a float word, or: a digit first (after an optional '-'), float characters only, at most float_text_max of them *)
Lemma float_text_ok_cases (t : list N) : float_text_ok t = true ->
  In t float_words
  \/ (match t with
      | c :: r => if N.eqb c 45 then match r with d :: _ => is_dec_digit d | [] => false end else is_dec_digit c
      | [] => false
      end = true /\ forallb float_text_char t = true /\ (length t <= 32)%nat).
Proof.
  unfold float_text_ok. intros H. apply orb_true_iff in H as [H|H]; [left; apply inl_in; exact H|right].
  apply andb_true_iff in H as [H L]. apply andb_true_iff in H as [Hd F]. split; [exact Hd|split; [exact F|]].
  apply N.leb_le in L. unfold float_text_max in L. nn. lia.
Qed.

Lemma float_text_facts (t : list N) : float_text_ok t = true ->
  t <> [] /\ (length t <= 32)%nat /\ forall c, In c t -> is_dec_digit c = true \/ In c [46; 101; 69; 43; 45; 110; 97; 105; 102].
Proof.
  intros H. destruct (float_text_ok_cases t H) as [H'|(Hd & F & L)].
  - cbn [float_words In] in H'.
    repeat (destruct H' as [<-|H']; [split; [discriminate|]; split; [cbn; lia|]; intros c Hc; right; cbn in Hc |- *; tauto|]).
    destruct H'.
  - split; [intros ->; discriminate Hd|]. split; [exact L|].
    intros c Hc. pose proof (proj1 (forallb_forall _ _) F _ Hc) as X. unfold float_text_char in X.
    apply orb_true_iff in X as [X|X]; [left; exact X|right].
    apply existsb_exists in X. destruct X as (k & Hk & E). apply N.eqb_eq in E. subst k. cbn in Hk |- *. tauto.
Qed.

(* the implicit key *)
Lemma tbl_scanner_key_room : 66 <= SIMPLE_KEY_MAX.   Proof. vm_compute. discriminate. Qed.

Lemma complex_key_false m level k : complex_key m level k = false ->
  is_collection k = false /\ forall s, k = NStr s -> is_literal_block m level s = false /\ is_long_key s = false.
Proof.
  destruct k; cbn [complex_key is_collection]; try discriminate; intros H; (split; [reflexivity|]); intros s0 E; try discriminate E.
  inversion E; subst. rewrite tbl_key_explicit_literal, tbl_key_explicit_long in H. cbn [andb] in H.
  apply orb_false_iff in H. exact H.
Qed.

(* G1, positive: a key that is written in the implicit form is one line of at most SIMPLE_KEY_MAX characters *)
Theorem implicit_key_fits c m level k : wf_node k = true -> complex_key m level k = false ->
  str_len (emit c m None level k) <= SIMPLE_KEY_MAX /\ ~ In 10 (emit c m None level k).
Proof.
  intros Hwf Hck. destruct (complex_key_false _ _ _ Hck) as [_ Hstr]. pose proof tbl_scanner_key_room as Room.
  destruct k as [|b|z|t|s|l|l]; try discriminate Hck; cbn [emit scalar_prefix app].
  - split; [unfold str_len; cbn [length]; lia|]. intros [X|[]]. discriminate X.
  - destruct b; (split; [unfold str_len, w_true, w_false; cbn [length]; lia|]); cbn; intuition discriminate.
  - cbn [wf_node] in Hwf. destruct (dec_Z_shape z Hwf) as (neg & digs & -> & _ & Hd & Hlen). split.
    + unfold str_len. rewrite app_length. destruct neg; cbn [length]; lia.
    + intros X. apply in_app_or in X. destruct X as [X|X].
      * destruct neg; [destruct X as [X|[]]; discriminate X|destruct X].
      * apply Hd in X. discriminate X.
  - cbn [wf_node] in Hwf. apply andb_true_iff in Hwf as [_ Hf]. destruct (float_text_facts t Hf) as (_ & Hlen & Hch). split.
    + unfold str_len. nn. lia.
    + intros X. destruct (Hch 10 X) as [Y|Y]; [discriminate Y|]. cbn in Y. intuition discriminate.
  - destruct (Hstr s eq_refl) as [Hlit Hlong]. unfold emit_string. rewrite Hlit.
    pose proof (short_key_len s Hlong) as Hlen. pose proof tbl_key_max_scanner as Hmax. split.
    + destruct (need_quotes s); lia.
    + destruct (need_quotes s) eqn:Q; [apply escape_str_no_lf|apply plain_no_lf; exact Q].
Qed.

(* G1 at tree level: in every well-formed tree, under either multiline setting, every key that the emitter writes in
   the implicit form has at most SIMPLE_KEY_MAX characters *)
Theorem implicit_keys_fit m doc : wf_node doc = true -> max_key_len m doc <= SIMPLE_KEY_MAX.
Proof.
  induction doc as [| | | | |l IH|l IH] using node_ind'; intros Hwf; try (cbn [max_key_len]; lia).
  - cbn [max_key_len]. cbn [wf_node] in Hwf. induction IH as [|x r Px _ IHr]; [lia|].
    cbn [forallb] in Hwf. apply andb_true_iff in Hwf as [Hx Hr].
    apply N.max_lub; [apply Px; exact Hx|apply IHr; exact Hr].
  - cbn [max_key_len]. cbn [wf_node] in Hwf. apply andb_true_iff in Hwf as [Hwf _].
    induction IH as [|[k x] r [Pk Px] _ IHr]; [lia|].
    cbn [forallb fst snd] in Hwf, Pk, Px. apply andb_true_iff in Hwf as [Hkx Hr]. apply andb_true_iff in Hkx as [Hk Hx].
    apply N.max_lub; [|apply N.max_lub; [apply Px; exact Hx|apply IHr; exact Hr]].
    destruct (complex_key m 0 k) eqn:Ck; [apply Pk; exact Hk|].
    exact (proj1 (implicit_key_fits true m 0 k Hk Ck)).
Qed.

(* the key forms do not depend on the level, as long as it is that of a mapping's entries (not negative) *)
Lemma is_literal_block_level m l1 l2 v : (0 <= l1)%Z -> (0 <= l2)%Z -> is_literal_block m l1 v = is_literal_block m l2 v.
Proof.
  intros H1 H2. unfold is_literal_block.
  destruct (Z.ltb_spec l1 0); [lia|]. destruct (Z.ltb_spec l2 0); [lia|]. reflexivity.
Qed.
Lemma complex_key_level m l1 l2 k : (0 <= l1)%Z -> (0 <= l2)%Z -> complex_key m l1 k = complex_key m l2 k.
Proof. intros H1 H2. destruct k; try reflexivity. cbn [complex_key]. rewrite (is_literal_block_level m l1 l2); auto. Qed.
