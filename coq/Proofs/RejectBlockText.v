(* C06, text level, DAMAGED BLOCK DOCUMENTS: rejection theorems whose well-formed part is a symbolic document of the block text
   sub-language (Spec/BlockText.v).  The scanner run over the well-formed part is taken from Proofs/ScanBlockProofs.v (C03:
   [key_at_tok], [at_tok], [at_below], [delivers] and the normal form [mkb]); the failing step is one of the
   state-level rejection theorems of Proofs/RejectScan.v (sites 41, 101), applied to the state the run arrives in. *)
From Coq Require Import List NArith ZArith Bool Arith Lia.
Import ListNotations.
Require Import Parser SBase SPrim SDir SScalar SFetch Pipe Drivers TokenGrammar FlowText BlockText.
Require Import RejectProofs RejectScan ScanFlowProofs ScanBlockProofs.
Open Scope N_scope.

(* the state behind StreamStart *)
Definition S1 (txt : list N) : sc strin := mkb txt 1 (mkm 0 1 0) [] 0 true dummy_key (-1)%Z [] 1 false true.

Lemma at_S1 txt : at_tok (S1 txt) txt 0 [].
Proof. exists 1%nat, 0, 1, 0, dummy_key, 1, true. split; [reflexivity|left; reflexivity]. Qed.

(* the bridge: the iterator delivers [toks] behind StreamStart and then fails => the scan of the text ends in that error, and
   the pipeline rejects the text *)
Lemma scan_err_after txt toks s' e m :
  delivers (2 * length txt + 10) (S1 txt) toks s' ->
  next_token str_ops (2 * length txt + 10) s' = Err e m ->
  (length toks <= 8 * length txt + 40)%nat ->
  snd (scan_str txt) = SError e m /\ snd (run_str txt) <> PDone.
Proof.
  intros Hd He Hl.
  assert (E : snd (scan_str txt) = SError e m).
  { unfold scan_str. set (F := (2 * length txt + 10)%nat) in *.
    assert (Ef : exists f2, (4 * F + 20 = S (length toks + S f2))%nat) by (exists (4 * F + 18 - length toks)%nat; unfold F; lia).
    destruct Ef as (f2 & ->). rewrite scan_all_S, (ScanFlowProofs.first_token F txt) by (unfold F; lia). cbv beta iota.
    change (mkst txt 1 (mk1 0) [] 0 true [dummy_key] 0 1 false true []) with (S1 txt).
    rewrite Hd, scan_all_S, He. reflexivity. }
  split; [exact E|]. apply RejectScan.scan_error_rejected. left. exists e, m. exact E.
Qed.

(* (2) a tab as the indentation of the line below "key:" / below "-" *)
(* ANY state behind "key:" or "-" at the end of its line (ScanBlockProofs.at_below: the indent raised by one column over the
   innermost open collection, whatever collections [cols] are open), the next line starting with a tab, blanks, content *)
Lemma tab_at_below F s ws c rest cols :
  at_below s (10 :: 9 :: ws ++ c :: rest) cols -> blank_run SkipYes ws -> is_content_start c -> (length ws + 3 <= F)%nat ->
  exists m, next_token str_ops F s = Err 41 m.
Proof.
  intros (l & i & ln & cc & adj & ska & kk & tp & top & rest0 & Ecols & Htop & Es & Hkk) HB HC HF.
  eexists. apply next_token_fetch_err; try (rewrite Es; reflexivity); [lia|].
  rewrite (fetch_next_token_started _ s) by (rewrite Es; reflexivity).
  assert (EF : exists F', F = S F' /\ (S (length ws) < F')%nat) by (exists (F - 1)%nat; lia).
  destruct EF as (F' & -> & HF').
  unfold bind at 1.
  rewrite skip_to_next_token_newline by (rewrite Es; reflexivity).
  rewrite (tab_indentation_rejected F' (after_newline (looked s 1)) ws c rest).
  - reflexivity.
  - rewrite Es. reflexivity.
  - exact HB.
  - exact HC.
  - rewrite Es. discriminate.
  - rewrite Es. reflexivity.
  - rewrite Es. unfold after_newline, looked, mkb, mkm, nlm. cbn. change ((0 =? 0)%N) with true. cbn. lia.
  - exact HF'.
Qed.

(* EVERY text  key ":" NL TAB blanks content ...  (the key any word of the sub-language) *)
Theorem tab_below_key_rejected k ws c rest :
  key_ok k = true -> blank_run SkipYes ws -> is_content_start c ->
  (exists m, snd (scan_str (k ++ 58 :: 10 :: 9 :: ws ++ c :: rest)) = SError 41 m)
  /\ snd (run_str (k ++ 58 :: 10 :: 9 :: ws ++ c :: rest)) <> PDone.
Proof.
  intros Hk HB HC. destruct (key_ok_word k Hk) as (c0 & w & -> & Hw & Hlen).
  set (txt := (c0 :: w) ++ 58 :: 10 :: 9 :: ws ++ c :: rest). set (F := (2 * length txt + 10)%nat).
  assert (HlenT : (length w + length ws + 5 <= length txt)%nat).
  { unfold txt. cbn [length app]. rewrite app_length. cbn [length]. rewrite app_length. cbn [length]. lia. }
  destruct (key_at_tok F (S1 txt) c0 w 10 (9 :: ws ++ c :: rest) 0 [] [] true (at_S1 txt) Hw Hlen (or_intror eq_refl)
              (Forall_nil _) ltac:(split; cbn; lia) ltac:(unfold F; lia)) as (toks & s' & Hd & Hm & Hb).
  destruct (tab_at_below F s' ws c rest _ Hb HB HC ltac:(unfold F; lia)) as (m & Ef).
  assert (Hl : length toks = 4%nat).
  { pose proof (map_length snd toks) as HL. rewrite Hm in HL. unfold key_toks in HL. cbn in HL. symmetry. exact HL. }
  destruct (scan_err_after txt toks s' _ _ Hd Ef ltac:(lia)) as [E1 E2].
  split; [eexists; exact E1 | exact E2].
Qed.

(* EVERY text  "-" NL TAB blanks content ... *)
Theorem tab_below_dash_rejected ws c rest :
  blank_run SkipYes ws -> is_content_start c ->
  (exists m, snd (scan_str (45 :: 10 :: 9 :: ws ++ c :: rest)) = SError 41 m)
  /\ snd (run_str (45 :: 10 :: 9 :: ws ++ c :: rest)) <> PDone.
Proof.
  intros HB HC.
  set (txt := 45 :: 10 :: 9 :: ws ++ c :: rest). set (F := (2 * length txt + 10)%nat).
  assert (HlenT : (length ws + 4 <= length txt)%nat).
  { unfold txt. cbn [length app]. rewrite app_length. cbn [length]. lia. }
  destruct (dash_nl F (S1 txt) (9 :: ws ++ c :: rest) 0 [] [] true (or_introl (at_S1 txt))
              (Forall_nil _) ltac:(split; cbn; lia) ltac:(unfold F; lia)) as (toks & s' & Hd & Hm & Hb).
  destruct (tab_at_below F s' ws c rest _ Hb HB HC ltac:(unfold F; lia)) as (m & Ef).
  assert (Hl : length toks = 2%nat).
  { pose proof (map_length snd toks) as HL. rewrite Hm in HL. unfold dash_toks in HL. cbn in HL. symmetry. exact HL. }
  destruct (scan_err_after txt toks s' _ _ Hd Ef ltac:(lia)) as [E1 E2].
  split; [eexists; exact E1 | exact E2].
Qed.

(* (2'), the well-formed part symbolic: EVERY document of the block text sub-language, then one more line "key:" at column 0 *)
(* whose nested line is indented by a tab *)
Theorem tab_below_key_after_document_rejected n k ws c rest :
  bwf_root n = true -> (bdepth n <= 255)%nat ->
  key_ok k = true -> blank_run SkipYes ws -> is_content_start c ->
  (exists m, snd (scan_str (bdoc_text n ++ k ++ 58 :: 10 :: 9 :: ws ++ c :: rest)) = SError 41 m)
  /\ snd (run_str (bdoc_text n ++ k ++ 58 :: 10 :: 9 :: ws ++ c :: rest)) <> PDone.
Proof.
  intros Hroot Hdep Hk HB HC. destruct (key_ok_word k Hk) as (c0 & w & -> & Hw & Hlen).
  unfold bwf_root in Hroot. apply andb_prop in Hroot as [Hcoll Hwf].
  pose proof (coll_scan_all n true Hwf Hcoll) as HCS.
  unfold bdoc_text. set (tl := (c0 :: w) ++ 58 :: 10 :: 9 :: ws ++ c :: rest).
  set (txt := brender 0 n ++ tl). set (F := (2 * length txt + 10)%nat).
  assert (HlenT : (length (brender 0 n) + length w + length ws + 5 <= length txt)%nat).
  { unfold txt, tl. rewrite app_length. cbn [length app]. rewrite app_length. cbn [length]. rewrite app_length. cbn [length]. lia. }
  assert (Htl : line_first tl).
  { unfold tl. cbn [app line_first]. cbn [forallb] in Hw. apply andb_prop in Hw as [Hc0 _].
    destruct (first_char_facts c0 (or_intror Hc0)) as (Hnw & Hbr & _). split; [|exact Hbr].
    destruct (wch_facts c0 Hc0) as (Hb & _). destruct (blankz_facts c0 Hb) as (H32 & H9 & _).
    unfold is_blank. rewrite H32, H9. reflexivity. }
  destruct (HCS F 0%nat [] (S1 txt) 0%nat tl (or_introl (at_S1 txt)) ltac:(unfold top_lt; cbn; lia) ltac:(cbn [length]; lia) Htl ltac:(lia)
              ltac:(unfold fuel_ok; cbn [repeat app]; fold txt; unfold F; lia))
    as (toks & s' & ext' & Hd & He & Hat' & _).
  rewrite app_nil_r in Hat'. cbn [repeat app] in He.
  destruct (split_cols ext') as (ext & base & Eext & Hext & Hbase).
  rewrite Eext in Hat'.
  assert (Hj : exists opens, joins opens 0 base).
  { destruct base as [|b r].
    - exists true. split; cbn; lia.
    - exists false. exists r. cbn in Hbase. f_equal. cbn. lia. }
  destruct Hj as (opens & Hj).
  destruct (key_at_tok F s' c0 w 10 (9 :: ws ++ c :: rest) 0 ext base opens Hat' Hw Hlen (or_intror eq_refl)
              Hext Hj ltac:(unfold F; lia)) as (toks2 & s2 & Hd2 & Hm2 & Hb2).
  destruct (tab_at_below F s2 ws c rest _ Hb2 HB HC ltac:(unfold F; lia)) as (m & Ef).
  pose proof (toks_le_text n true 0%nat Hwf) as Hlen1.
  assert (Hl1 : (length toks + length ext' = length (tokens_of (blt n)))%nat).
  { rewrite He, app_length, map_length, repeat_length. reflexivity. }
  assert (Hl2 : (length toks2 <= length ext' + 4)%nat).
  { pose proof (map_length snd toks2) as HL. rewrite Hm2 in HL. rewrite app_length, repeat_length in HL. unfold key_toks in HL.
    rewrite app_length in HL. rewrite Eext, app_length. destruct opens; cbn [length] in HL; (eapply Nat.le_trans; [apply Nat.eq_le_incl; symmetry; exact HL | lia]). }
  destruct (scan_err_after txt (toks ++ toks2) s2 _ _ (delivers_trans _ _ _ _ _ _ Hd Hd2) Ef ltac:(rewrite app_length; lia)) as [E1 E2].
  split; [eexists; exact E1 | exact E2].
Qed.
