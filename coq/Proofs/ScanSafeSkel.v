(* The token-level skeleton of the scanner (fetch_*, fetch_next_token, fetch_more_tokens, next_token, scan_all)
   preserves the skeleton invariant and never panics, given the contracts of the character-level entry points:
   one walk for every input.  Panic sites covered here: 111 (insert_token out of range), 112/118 (token-number
   underflow), 113/114 (empty indent stack), 115/116/117 (empty simple-key stack).

   The skeleton reaches the input only through [look], [peekn], [assert_buflen], [skip_non_blank] and
   [skip_n_non_blank]; what it has to know of the input is one number [avail s], the characters it may read without
   asking again: the buffered length over the buffered input (ScanSafeFetch.v), the lookahead counter over the
   string input (ScanSafeStrFetch.v).  The section takes the rules of those five operations and the contracts of
   the nine character-level entry points in terms of [avail]. *)
From Coq Require Import List NArith ZArith Bool Arith Lia.
Import ListNotations.
Require Import Parser SBase SPrim SDir SScalar SFetch DispatchTie ScanSkel.
Local Open Scope nat_scope.
Arguments Nat.ltb : simpl never.
Arguments Nat.leb : simpl never.
Arguments Nat.eqb : simpl never.
Arguments Nat.sub : simpl never.

Ltac sproj :=
  cbn [sc_in sc_mark sc_tokens sc_stream_start sc_stream_end sc_adjacent sc_ska sc_sks sc_indent sc_indents
       sc_flow_level sc_tokens_parsed sc_token_available sc_lws sc_ifms
       set_in set_mark set_tokens set_flags set_ska set_lws set_adj set_ta set_ss set_se
       set_struct set_sks set_indent set_fl set_tp set_ifms upd].

Section Skeleton.
Context {I : Type} (B : InputOps I) (avail : sc I -> nat).
Notation st := (sc I).
Notation M := (@M I).

Hypothesis avail_in : forall s s' : st, sc_in s' = sc_in s -> avail s' = avail s.

(* the skeleton never asks for more than four characters *)
Hypothesis wp_look : forall n (Q : unit -> st -> Prop) s, n <= 4 ->
  (forall s', same_but_input s s' -> n <= avail s' -> avail s <= avail s' -> Q tt s') -> wp (look B n) Q s.
Hypothesis wp_peekn : forall n (Q : chr -> st -> Prop) s, n < avail s -> (forall c, Q c s) -> wp (peekn B n) Q s.
Hypothesis wp_assert_buflen : forall n site (Q : unit -> st -> Prop) s,
  n <= avail s -> Q tt s -> wp (assert_buflen B n site) Q s.
Hypothesis wp_skip_non_blank : forall (Q : unit -> st -> Prop) s,
  (forall s', keeps s s' -> avail s - 1 <= avail s' -> Q tt s') -> wp (skip_non_blank B) Q s.
Hypothesis wp_skip_n_non_blank : forall n (Q : unit -> st -> Prop) s,
  n <= avail s -> (forall s', keeps s s' -> avail s - n <= avail s' -> Q tt s') -> wp (skip_n_non_blank B n) Q s.

(* Every contract says: from a state satisfying the stated precondition on [avail] the function does not panic and,
   when it returns normally, it has left the skeleton alone ([keeps]) and at least [k] characters are available. *)
Definition post_keeps (s : st) (k : nat) {A} : A -> st -> Prop := fun _ s' => keeps s s' /\ k <= avail s'.

Hypothesis H_next : forall F s, wp (skip_to_next_token B F) (post_keeps s 1) s.
Hypothesis H_ws : forall F stb s, wp (skip_ws_to_eol B F stb) (post_keeps s 1) s.
Hypothesis H_yws : forall F s, wp (skip_yaml_whitespace B F) (post_keeps s 1) s.
Hypothesis H_dir : forall F s, 1 <= avail s -> wp (scan_directive B F) (post_keeps s 0) s.
Hypothesis H_tag : forall F s, wp (scan_tag B F) (post_keeps s 0) s.
Hypothesis H_anchor : forall F alias s, 1 <= avail s -> wp (scan_anchor B F alias) (post_keeps s 0) s.
Hypothesis H_flow : forall F single s, 1 <= avail s -> wp (scan_flow_scalar B F single) (post_keeps s 0) s.
Hypothesis H_plain : forall F s, wp (scan_plain_scalar B F) (post_keeps s 0) s.
Hypothesis H_block : forall F literal s, 1 <= avail s -> wp (scan_block_scalar B F literal) (post_keeps s 0) s.

(* the Input default methods the skeleton calls *)
Lemma wp_peek (Q : chr -> st -> Prop) s : 1 <= avail s -> (forall c, Q c s) -> wp (SPrim.peek B) Q s.
Proof. intros H HQ. apply wp_peekn; [lia|exact HQ]. Qed.
Lemma wp_look_ch (Q : chr -> st -> Prop) s :
  (forall c s', same_but_input s s' -> 1 <= avail s' -> avail s <= avail s' -> Q c s') -> wp (look_ch B) Q s.
Proof.
  intros HQ. unfold look_ch. apply wp_bind. apply wp_look; [lia|]. intros s' Hs H1 H2.
  apply wp_peek; [exact H1|]. intros c. apply HQ; assumption.
Qed.
Lemma wp_next_is p (Q : bool -> st -> Prop) s : 1 <= avail s -> (forall r, Q r s) -> wp (next_is B p) Q s.
Proof. intros H HQ. unfold next_is. apply wp_bind. apply wp_peek; [exact H|]. intros x. apply wp_ret, HQ. Qed.
Lemma wp_next_3_are a b c (Q : bool -> st -> Prop) s : 3 <= avail s -> (forall r, Q r s) -> wp (next_3_are B a b c) Q s.
Proof.
  intros H HQ. unfold next_3_are. apply wp_bind. apply wp_assert_buflen; [exact H|].
  apply wp_bind. apply wp_peek; [lia|]. intros x. apply wp_bind. apply wp_peekn; [lia|]. intros y.
  apply wp_bind. apply wp_peekn; [lia|]. intros z. apply wp_ret, HQ.
Qed.
Lemma wp_next_is_document_start (Q : bool -> st -> Prop) s : 4 <= avail s -> (forall r, Q r s) -> wp (next_is_document_start B) Q s.
Proof.
  intros H HQ. unfold next_is_document_start. apply wp_bind. apply wp_assert_buflen; [exact H|].
  apply wp_bind. apply wp_next_3_are; [lia|]. intros d. destruct d; [|apply wp_ret, HQ].
  apply wp_bind. apply wp_peekn; [lia|]. intros c3. apply wp_ret, HQ.
Qed.
Lemma wp_next_is_document_end (Q : bool -> st -> Prop) s : 4 <= avail s -> (forall r, Q r s) -> wp (next_is_document_end B) Q s.
Proof.
  intros H HQ. unfold next_is_document_end. apply wp_bind. apply wp_assert_buflen; [exact H|].
  apply wp_bind. apply wp_next_3_are; [lia|]. intros d. destruct d; [|apply wp_ret, HQ].
  apply wp_bind. apply wp_peekn; [lia|]. intros c3. apply wp_ret, HQ.
Qed.

(* invariants *)
(* the working invariant of every fetch_* function other than fetch_stream_start: the stream has started *)
Definition SI (s : st) : Prop := SInv s /\ sc_stream_start s = true.

(* frame of a skeleton operation: the input is untouched, no token is consumed, the queue only grows *)
Definition fr (s s' : st) : Prop :=
  sc_in s' = sc_in s /\ sc_tokens_parsed s' = sc_tokens_parsed s
  /\ length (sc_tokens s) <= length (sc_tokens s').

Lemma fr_refl s : fr s s.
Proof. unfold fr; auto. Qed.
Lemma fr_trans s1 s2 s3 : fr s1 s2 -> fr s2 s3 -> fr s1 s3.
Proof. unfold fr. intros (A1 & A2 & A3) (B1 & B2 & B3). repeat split; try congruence. lia. Qed.
Lemma fr_avail s s' : fr s s' -> avail s' = avail s.
Proof. intros (A & _). apply avail_in, A. Qed.

(* no possible simple key points at the head of the token queue: the head may be handed out *)
Definition nokey (s : st) : Prop :=
  forall k, In k (sc_sks s) -> sk_possible k = true -> sk_token_number k <> sc_tokens_parsed s.

(* the invariant at the level of next_token / scan_all *)
Definition J (s : st) : Prop := SInv s /\ (sc_stream_start s = false -> sc_indents s = []).
Definition SInv' (s : st) : Prop := J s /\ (sc_token_available s = true -> nokey s).

Lemma si_J s : SI s -> J s.
Proof. intros [H E]. split; [exact H|]. rewrite E. discriminate. Qed.

Lemma si_elim s : SI s ->
  sc_stream_start s = true /\ N.of_nat (length (sc_sks s)) = (sc_flow_level s + 1)%N
  /\ sorted_from (sc_indent s) (sc_indents s) /\ Forall (sk_in_range s) (sc_sks s).
Proof. intros [(I1 & I2 & I3) E]. rewrite E in I1. auto. Qed.
Lemma si_intro s :
  sc_stream_start s = true -> N.of_nat (length (sc_sks s)) = (sc_flow_level s + 1)%N ->
  sorted_from (sc_indent s) (sc_indents s) -> Forall (sk_in_range s) (sc_sks s) -> SI s.
Proof. intros E I1 I2 I3. split; [|exact E]. unfold SInv. rewrite E. auto. Qed.

Lemma si_keeps s s' : keeps s s' -> SI s -> SI s'.
Proof.
  intros K [H E]. split; [eapply sinv_keeps; eauto|].
  destruct K as (_ & _ & _ & _ & A5 & _). congruence.
Qed.

(* states agreeing on the skeleton (queue possibly longer) *)
Definition same_skel (s s' : st) : Prop :=
  sc_sks s' = sc_sks s /\ sc_flow_level s' = sc_flow_level s /\ sc_stream_start s' = sc_stream_start s
  /\ sc_tokens_parsed s' = sc_tokens_parsed s /\ length (sc_tokens s) <= length (sc_tokens s')
  /\ sc_indent s' = sc_indent s /\ sc_indents s' = sc_indents s /\ sc_in s' = sc_in s.

Lemma range_mono (s s' : st) k :
  sc_tokens_parsed s' = sc_tokens_parsed s -> length (sc_tokens s) <= length (sc_tokens s') ->
  sk_in_range s k -> sk_in_range s' k.
Proof. intros E4 E5 Hk Hp. specialize (Hk Hp). rewrite E4. lia. Qed.

Lemma sinv_ext s s' : same_skel s s' -> SInv s -> SInv s'.
Proof.
  intros (E1 & E2 & E3 & E4 & E5 & E6 & E7 & _) (I1 & I2 & I3). unfold SInv. rewrite E1, E2, E3, E6, E7.
  split; [exact I1|]. split; [exact I2|].
  eapply Forall_impl; [|exact I3]. intros k Hk. eapply range_mono; eauto.
Qed.
Lemma si_ext s s' : same_skel s s' -> SI s -> SI s'.
Proof.
  intros K [H E]. split; [eapply sinv_ext; eauto|]. destruct K as (_ & _ & E3 & _). congruence.
Qed.
Lemma skel_fr s s' : same_skel s s' -> fr s s'.
Proof. intros (_ & _ & _ & E4 & E5 & _ & _ & E8). unfold fr. auto. Qed.

Ltac skel_triv :=
  unfold same_skel; cbv beta;
  repeat match goal with |- context [if ?b then _ else _] => destruct b end;
  repeat match goal with |- context [match sc_ifms ?s with _ => _ end] => destruct (sc_ifms s) as [|[| | |] ?] end;
  repeat split; sproj; try reflexivity; try (rewrite app_length; lia); try lia.

Lemma wp_modify_skel f (Q : unit -> st -> Prop) s :
  same_skel s (f s) -> SI s -> (forall s', SI s' -> fr s s' -> Q tt s') -> wp (modify f) Q s.
Proof. intros K HI HQ. apply wp_modify. apply HQ; [eapply si_ext; eauto|apply skel_fr; exact K]. Qed.

(* a monadic step whose only possible effects are "fail" or "leave the state alone" *)
Lemma wp_pure {A} (m : M A) (Q : A -> st -> Prop) s :
  wp m (fun _ s' => s' = s) s -> (forall a, Q a s) -> wp m Q s.
Proof. intros H HQ. eapply wp_mono; [exact H|]. intros a s' ->. apply HQ. Qed.

Lemma use_spec {A} (m : M A) s k (Q : A -> st -> Prop) :
  wp m (post_keeps s k) s -> (forall a s', keeps s s' -> k <= avail s' -> Q a s') -> wp m Q s.
Proof. intros H HQ. eapply wp_mono; [exact H|]. intros a s' [K Bd]. apply HQ; assumption. Qed.

(* token queue *)
Lemma wp_push_tok t (Q : unit -> st -> Prop) s :
  SI s -> (forall s', SI s' -> fr s s' -> Q tt s') -> wp (push_tok t) Q s.
Proof. intros HI HQ. unfold push_tok. apply wp_modify_skel; [skel_triv|exact HI|exact HQ]. Qed.

(* panic 111 is unreachable when the position is within (or just past) the queue *)
Lemma wp_insert_token pos t (Q : unit -> st -> Prop) s :
  SI s -> N.to_nat pos <= length (sc_tokens s) ->
  (forall s', SI s' -> fr s s' -> Q tt s') -> wp (insert_token pos t) Q s.
Proof.
  intros HI Hp HQ. unfold wp, insert_token.
  destruct (insert_at_ok t _ _ Hp) as [l [E L]]. rewrite E.
  assert (K : same_skel s (set_tokens l s)) by (unfold same_skel; repeat split; sproj; try reflexivity; lia).
  apply HQ; [eapply si_ext; eauto|apply skel_fr; exact K].
Qed.

Lemma wp_allow (Q : unit -> st -> Prop) s :
  SI s -> (forall s', SI s' -> fr s s' -> Q tt s') -> wp allow_simple_key Q s.
Proof. intros HI HQ. unfold allow_simple_key. apply wp_modify_skel; [skel_triv|exact HI|exact HQ]. Qed.
Lemma wp_disallow (Q : unit -> st -> Prop) s :
  SI s -> (forall s', SI s' -> fr s s' -> Q tt s') -> wp disallow_simple_key Q s.
Proof. intros HI HQ. unfold disallow_simple_key. apply wp_modify_skel; [skel_triv|exact HI|exact HQ]. Qed.

(* indentation *)
Lemma si_set_indent s z l : SI s -> sorted_from z l -> SI (set_indent z l s).
Proof.
  intros HI Hs. destruct (si_elim _ HI) as (E & I1 & I2 & I3).
  apply si_intro; sproj; auto.
Qed.

(* panic 112 is unreachable: a token number handed to roll_indent lies in the queue *)
Lemma wp_roll_indent col number tk mk (Q : unit -> st -> Prop) s :
  SI s ->
  (forall n, number = Some n ->
     (sc_tokens_parsed s <= n)%N /\ (n <= sc_tokens_parsed s + N.of_nat (length (sc_tokens s)))%N) ->
  (forall s', SI s' -> fr s s' -> Q tt s') -> wp (roll_indent col number tk mk) Q s.
Proof.
  intros HI Hn HQ. unfold roll_indent. apply wp_bind, wp_get.
  destruct (0 <? sc_flow_level s)%N; [apply wp_ret, HQ; [exact HI|apply fr_refl]|].
  destruct (si_elim _ HI) as (E & I1 & I2 & I3).
  match goal with |- wp (let '(_, _) := ?p in _) _ _ =>
    assert (Hp : sorted_from (fst p) (snd p)); [|destruct p as [ind inds]] end.
  { destruct (sc_indent s <=? Z.of_N col)%Z; [|exact I2].
    destruct (sc_indents s) as [|i r] eqn:EI; [exact I2|].
    destruct (negb (in_needs_block_end i)); cbn [fst snd]; [|exact I2].
    destruct I2 as [_ I2]. exact I2. }
  cbn [fst snd] in Hp.
  destruct (ind <? Z.of_N col)%Z eqn:EC.
  - apply Z.ltb_lt in EC. destruct (BLOCK_NESTING_MAX <=? N.of_nat (length inds))%N; [apply wp_fail|]. apply wp_bind, wp_put.
    set (s1 := set_indent (Z.of_N col) ({| in_indent := ind; in_needs_block_end := true |} :: inds) s).
    assert (HI1 : SI s1) by (apply si_set_indent; [exact HI|cbn [sorted_from in_indent]; auto]).
    assert (F1 : fr s s1) by (unfold fr, s1; sproj; auto).
    destruct number as [n|].
    + destruct (Hn n eq_refl) as [L1 L2].
      destruct (n <? sc_tokens_parsed s)%N eqn:EN; [apply N.ltb_lt in EN; lia|].
      apply wp_insert_token; [exact HI1| unfold s1; sproj; lia |].
      intros s2 HI2 F2. apply HQ; [exact HI2|eapply fr_trans; [exact F1|exact F2]].
    + apply wp_push_tok; [exact HI1|]. intros s2 HI2 F2. apply HQ; [exact HI2|eapply fr_trans; [exact F1|exact F2]].
  - apply wp_put. apply HQ; [apply si_set_indent; assumption|unfold fr; sproj; auto].
Qed.

(* panic 113 is unreachable: an empty stack means indent = -1, and the column is >= -1 *)
Lemma wp_unroll_indent_go col : (-1 <= col)%Z -> forall fuel (Q : unit -> st -> Prop) s,
  SI s -> (forall s', SI s' -> fr s s' -> Q tt s') -> wp (unroll_indent_go fuel col) Q s.
Proof.
  intros Hc. induction fuel as [|fuel IH]; intros Q s HI HQ; cbn [unroll_indent_go]; [apply wp_oof|].
  apply wp_bind, wp_get.
  destruct (col <? sc_indent s)%Z eqn:EC; [|apply wp_ret, HQ; [exact HI|apply fr_refl]].
  apply Z.ltb_lt in EC. destruct (si_elim _ HI) as (E & I1 & I2 & I3).
  destruct (sc_indents s) as [|i r] eqn:EI.
  - cbn [sorted_from] in I2. lia.
  - destruct I2 as [I2a I2b].
    apply wp_bind, wp_put.
    set (s1 := set_indent (in_indent i) r s).
    assert (HI1 : SI s1) by (apply si_set_indent; assumption).
    assert (F1 : fr s s1) by (unfold fr, s1; sproj; auto).
    apply wp_bind.
    destruct (in_needs_block_end i).
    + apply wp_push_tok; [exact HI1|]. intros s2 HI2 F2.
      apply IH; [exact HI2|]. intros s3 HI3 F3. apply HQ; [exact HI3|].
      eapply fr_trans; [exact F1|]. eapply fr_trans; [exact F2|exact F3].
    + apply wp_ret. apply IH; [exact HI1|]. intros s3 HI3 F3. apply HQ; [exact HI3|eapply fr_trans; [exact F1|exact F3]].
Qed.

Lemma wp_unroll_indent col (Q : unit -> st -> Prop) s :
  (-1 <= col)%Z -> SI s -> (forall s', SI s' -> fr s s' -> Q tt s') -> wp (unroll_indent col) Q s.
Proof.
  intros Hc HI HQ. unfold unroll_indent. apply wp_bind, wp_get.
  destruct (0 <? sc_flow_level s)%N; [apply wp_ret, HQ; [exact HI|apply fr_refl]|].
  apply wp_unroll_indent_go; assumption.
Qed.

Lemma wp_roll_one_col_indent (Q : unit -> st -> Prop) s :
  SI s -> (forall s', SI s' -> fr s s' -> Q tt s') -> wp roll_one_col_indent Q s.
Proof.
  intros HI HQ. unfold roll_one_col_indent. apply wp_bind, wp_get.
  destruct (_ && _); [|apply wp_ret, HQ; [exact HI|apply fr_refl]].
  apply wp_put. destruct (si_elim _ HI) as (E & I1 & I2 & I3).
  apply HQ; [|unfold fr; sproj; auto].
  apply si_set_indent; [exact HI|]. cbn [sorted_from in_indent]. split; [lia|exact I2].
Qed.

(* simple keys *)
Definition clr (k : simple_key) : simple_key :=
  {| sk_possible := false; sk_required := sk_required k; sk_token_number := sk_token_number k; sk_mark := sk_mark k |}.
Lemma range_clr (s : st) k : sk_in_range s (clr k).
Proof. intros H. discriminate H. Qed.

Lemma si_set_sks s l :
  SI s -> length l = length (sc_sks s) -> Forall (sk_in_range s) l -> SI (set_sks l s).
Proof.
  intros HI HL HF. destruct (si_elim _ HI) as (E & I1 & I2 & I3).
  apply si_intro; sproj; auto. rewrite HL. exact I1.
Qed.
Lemma si_sks_nonempty s : SI s -> exists k r, sc_sks s = k :: r.
Proof.
  intros HI. destruct (si_elim _ HI) as (E & I1 & I2 & I3).
  destruct (sc_sks s) as [|k r]; [cbn [length] in I1; lia|eauto].
Qed.

(* panic 114 is unreachable: indent = column >= 0 means the indent stack is not empty; the simple-key stack is
   not empty once the stream has started, so replacing its head keeps its length *)
Lemma wp_save_simple_key (Q : unit -> st -> Prop) s :
  SI s -> (forall s', SI s' -> fr s s' -> Q tt s') -> wp save_simple_key Q s.
Proof.
  intros HI HQ. unfold save_simple_key. apply wp_bind, wp_get.
  destruct (sc_ska s); [|apply wp_ret, HQ; [exact HI|apply fr_refl]].
  destruct (si_elim _ HI) as (E & I1 & I2 & I3).
  destruct (si_sks_nonempty _ HI) as (k0 & r0 & EK).
  apply wp_bind.
  apply wp_mono with (Q := fun (_ : bool) s' => s' = s).
  - destruct ((sc_flow_level s =? 0)%N && (sc_indent s =? Z.of_N (m_col (sc_mark s)))%Z) eqn:EC; [|apply wp_ret; reflexivity].
    apply andb_true_iff in EC. destruct EC as [_ EC]. apply Z.eqb_eq in EC.
    destruct (sc_indents s) as [|i r]; [cbn [sorted_from] in I2; lia|apply wp_ret; reflexivity].
  - intros rq s' ->. apply wp_put. apply HQ; [|unfold fr; sproj; auto].
    apply si_set_sks; [exact HI|rewrite EK; reflexivity|].
    rewrite EK in I3 |- *. cbn [tl]. inversion I3; subst. constructor; [|assumption].
    intros _. cbn [sk_token_number]. lia.
Qed.

(* panic 115 is unreachable once the stream has started *)
Lemma wp_remove_simple_key (Q : unit -> st -> Prop) s :
  SI s -> (forall s', SI s' -> fr s s' -> Q tt s') -> wp remove_simple_key Q s.
Proof.
  intros HI HQ. unfold remove_simple_key. apply wp_bind, wp_get.
  destruct (si_elim _ HI) as (E & I1 & I2 & I3).
  destruct (si_sks_nonempty _ HI) as (k0 & r0 & EK). rewrite EK.
  destruct (_ && _); [apply wp_fail|].
  apply wp_put. apply HQ; [|unfold fr; sproj; auto].
  apply si_set_sks; [exact HI|rewrite EK; reflexivity|].
  rewrite EK in I3. inversion I3; subst. constructor; [apply (range_clr s k0)|assumption].
Qed.

Lemma Forall_map_clr (s : st) (p : simple_key -> bool) l :
  Forall (sk_in_range s) l -> Forall (sk_in_range s) (map (fun k => if p k then clr k else k) l).
Proof.
  induction 1 as [|k l Hk Hl IH]; cbn [map]; constructor; [|exact IH].
  destruct (p k); [apply range_clr|exact Hk].
Qed.

(* stale_simple_keys keeps the stack length and only clears [sk_possible]; it is also called before the
   stream has started, hence stated for J *)
Lemma wp_stale_J (Q : unit -> st -> Prop) s :
  J s -> (forall s', J s' -> sc_stream_start s' = sc_stream_start s -> fr s s' ->
                     sc_tokens s' = sc_tokens s -> Q tt s') -> wp stale_simple_keys Q s.
Proof.
  intros [(I1 & I2 & I3) HJ] HQ. unfold stale_simple_keys. apply wp_bind, wp_get.
  destruct (existsb _ _); [apply wp_fail|]. apply wp_put. apply HQ; sproj; try reflexivity; [|unfold fr; sproj; auto].
  split; [|sproj; exact HJ]. unfold SInv; sproj. split; [|split; [exact I2|]].
  - destruct (sc_stream_start s); [rewrite map_length; exact I1|].
    destruct I1 as [-> ->]. auto.
  - apply (Forall_map_clr s
      (fun k => sk_possible k && (sc_flow_level s =? 0)%N
                && ((m_line (sk_mark k) <? m_line (sc_mark s))%N
                    || (m_index (sk_mark k) + SIMPLE_KEY_MAX <? m_index (sc_mark s))%N))). exact I3.
Qed.
Lemma wp_stale (Q : unit -> st -> Prop) s :
  SI s -> (forall s', SI s' -> fr s s' -> Q tt s') -> wp stale_simple_keys Q s.
Proof.
  intros HI HQ. apply wp_stale_J; [apply si_J, HI|]. intros s' [H' _] E F _.
  apply HQ; [|exact F]. split; [exact H'|]. rewrite E. apply HI.
Qed.

Lemma wp_end_implicit_mapping mk (Q : unit -> st -> Prop) s :
  SI s -> (forall s', SI s' -> fr s s' -> Q tt s') -> wp (end_implicit_mapping mk) Q s.
Proof.
  intros HI HQ. unfold end_implicit_mapping. apply wp_bind, wp_get.
  destruct (sc_ifms s) as [|[| | |] r]; try (apply wp_ret, HQ; [exact HI|apply fr_refl]).
  - apply wp_bind, wp_put.
    set (s1 := set_ifms (ImPossible :: r) s).
    assert (K : same_skel s s1) by (unfold s1; skel_triv).
    apply wp_push_tok; [eapply si_ext; eauto|]. intros s2 HI2 F2.
    apply HQ; [exact HI2|]. eapply fr_trans; [apply skel_fr; exact K|exact F2].
  - apply wp_put.
    set (s1 := set_ifms (ImPossible :: r) s).
    assert (K : same_skel s s1) by (unfold s1; skel_triv).
    apply HQ; [eapply si_ext; eauto|apply skel_fr; exact K].
Qed.

(* the simple-key stack and the flow level grow and shrink together *)
Lemma wp_increase_flow_level (Q : unit -> st -> Prop) s :
  SI s -> (forall s', SI s' -> fr s s' -> Q tt s') -> wp increase_flow_level Q s.
Proof.
  intros HI HQ. unfold increase_flow_level. apply wp_bind, wp_get.
  destruct (sc_flow_level s =? FLOW_LEVEL_MAX)%N; [exact Logic.I|].
  apply wp_put. destruct (si_elim _ HI) as (E & I1 & I2 & I3).
  apply HQ; [|unfold fr; sproj; auto].
  apply si_intro; sproj; auto.
  - cbn [length]. lia.
  - constructor; [intros H; discriminate H|]. exact I3.
Qed.

(* panic 116 is unreachable once the stream has started *)
Lemma wp_decrease_flow_level (Q : unit -> st -> Prop) s :
  SI s -> (forall s', SI s' -> fr s s' -> Q tt s') -> wp decrease_flow_level Q s.
Proof.
  intros HI HQ. unfold decrease_flow_level. apply wp_bind, wp_get.
  destruct (0 <? sc_flow_level s)%N eqn:EF; [|apply wp_ret, HQ; [exact HI|apply fr_refl]].
  apply N.ltb_lt in EF.
  destruct (si_elim _ HI) as (E & I1 & I2 & I3).
  destruct (si_sks_nonempty _ HI) as (k0 & r0 & EK). rewrite EK.
  apply wp_put. apply HQ; [|unfold fr; sproj; auto].
  rewrite EK in I1, I3. cbn [length] in I1.
  apply si_intro; sproj; auto; [lia|]. inversion I3; subst; assumption.
Qed.


(* skeleton steps as a combinator language *)
Definition skstep (m : M unit) : Prop :=
  forall (Q : unit -> st -> Prop) s, SI s -> (forall s', SI s' -> fr s s' -> Q tt s') -> wp m Q s.

Lemma skc_run m (Q : unit -> st -> Prop) s :
  skstep m -> SI s -> (forall s', SI s' -> fr s s' -> Q tt s') -> wp m Q s.
Proof. intros H. apply H. Qed.
Lemma skc_ret : skstep (ret tt).
Proof. intros Q s HI HQ. apply wp_ret, HQ; [exact HI|apply fr_refl]. Qed.
Lemma skc_fail site mk : skstep (fail site mk).
Proof. intros Q s HI HQ. apply wp_fail. Qed.
Lemma skc_if (b : bool) m1 m2 : skstep m1 -> skstep m2 -> skstep (if b then m1 else m2).
Proof. destruct b; auto. Qed.
Lemma skc_bind m1 m2 : skstep m1 -> skstep m2 -> skstep (bind m1 (fun _ => m2)).
Proof.
  intros H1 H2 Q s HI HQ. apply wp_bind. apply H1; [exact HI|]. intros s1 HI1 F1.
  apply H2; [exact HI1|]. intros s2 HI2 F2. apply HQ; [exact HI2|eapply fr_trans; [exact F1|exact F2]].
Qed.
Lemma skc_get f : (forall s0, skstep (f s0)) -> skstep (bind get f).
Proof. intros H Q s HI HQ. apply wp_bind, wp_get. apply H; assumption. Qed.
Lemma skc_mark f : (forall m, skstep (f m)) -> skstep (bind mark f).
Proof. intros H Q s HI HQ. apply wp_bind, wp_mark. apply H; assumption. Qed.
Lemma skc_modify f : (forall s, same_skel s (f s)) -> skstep (modify f).
Proof. intros H Q s HI HQ. apply wp_modify_skel; auto. Qed.

Lemma skc_check_closer seq : skstep (check_flow_closer seq).
Proof.
  intros Q s HI HQ. unfold check_flow_closer. apply wp_bind, wp_get.
  destruct (sc_ifms s) as [|st r]; [apply wp_ret, HQ; [exact HI|apply fr_refl]|]. cbv zeta.
  destruct (Bool.eqb _ _); [apply wp_ret, HQ; [exact HI|apply fr_refl]|apply wp_fail].
Qed.
Definition skc_push_tok t : skstep (push_tok t) := wp_push_tok t.
Definition skc_allow : skstep allow_simple_key := wp_allow.
Definition skc_disallow : skstep disallow_simple_key := wp_disallow.
Definition skc_roll_one : skstep roll_one_col_indent := wp_roll_one_col_indent.
Definition skc_save : skstep save_simple_key := wp_save_simple_key.
Definition skc_remove : skstep remove_simple_key := wp_remove_simple_key.
Definition skc_stale : skstep stale_simple_keys := wp_stale.
Definition skc_eim mk : skstep (end_implicit_mapping mk) := wp_end_implicit_mapping mk.
Definition skc_incr : skstep increase_flow_level := wp_increase_flow_level.
Definition skc_decr : skstep decrease_flow_level := wp_decrease_flow_level.
Lemma skc_roll_indent_none col tk mk : skstep (roll_indent col None tk mk).
Proof. intros Q s HI HQ. apply wp_roll_indent; [exact HI|intros n Hn; discriminate Hn|exact HQ]. Qed.
Lemma skc_unroll_m1 : skstep (unroll_indent (-1)%Z).
Proof. intros Q s HI HQ. apply wp_unroll_indent; [lia|exact HI|exact HQ]. Qed.
Lemma skc_unroll_N n : skstep (unroll_indent (Z.of_N n)).
Proof. intros Q s HI HQ. apply wp_unroll_indent; [lia|exact HI|exact HQ]. Qed.
Lemma skc_clear_head :
  skstep (modify (fun s : st => match sc_sks s with
                     | k :: r => set_sks ({| sk_possible := false; sk_required := sk_required k;
                                             sk_token_number := sk_token_number k; sk_mark := sk_mark k |} :: r) s
                     | [] => s end)).
Proof.
  intros Q s HI HQ. apply wp_modify. destruct (si_elim _ HI) as (E & I1 & I2 & I3).
  destruct (sc_sks s) as [|k r] eqn:EK; [apply HQ; [exact HI|apply fr_refl]|].
  apply HQ; [|unfold fr; sproj; auto].
  apply si_set_sks; [exact HI|rewrite EK; reflexivity|].
  inversion I3; subst. constructor; [apply (range_clr s k)|assumption].
Qed.

Ltac skc_one :=
  cbv beta;
  lazymatch goal with
  | |- skstep (ret tt) => apply skc_ret
  | |- skstep (fail _ _) => apply skc_fail
  | |- skstep (if _ then _ else _) => apply skc_if
  | |- skstep (bind get _) => apply skc_get; intros ?
  | |- skstep (bind mark _) => apply skc_mark; intros ?
  | |- skstep (bind _ _) => apply skc_bind
  | |- skstep (push_tok _) => apply skc_push_tok
  | |- skstep allow_simple_key => apply skc_allow
  | |- skstep disallow_simple_key => apply skc_disallow
  | |- skstep roll_one_col_indent => apply skc_roll_one
  | |- skstep save_simple_key => apply skc_save
  | |- skstep remove_simple_key => apply skc_remove
  | |- skstep stale_simple_keys => apply skc_stale
  | |- skstep (end_implicit_mapping _) => apply skc_eim
  | |- skstep (check_flow_closer _) => apply skc_check_closer
  | |- skstep increase_flow_level => apply skc_incr
  | |- skstep decrease_flow_level => apply skc_decr
  | |- skstep (roll_indent _ None _ _) => apply skc_roll_indent_none
  | |- skstep (unroll_indent (-1)%Z) => apply skc_unroll_m1
  | |- skstep (unroll_indent (Z.of_N _)) => apply skc_unroll_N
  | |- skstep (modify _) => first [apply skc_clear_head | apply skc_modify; intros ?; skel_triv]
  end.
Ltac skc_auto := repeat skc_one.

(* one skeleton step of a sequence *)
Ltac sks :=
  apply wp_bind; cbv beta;
  (eapply skc_run; [solve [skc_auto] | assumption | ]);
  let s' := fresh "s" in let H := fresh "HI" in let F := fresh "Fr" in let Bd := fresh "Bd" in
  intros s' H F; pose proof (fr_avail _ _ F) as Bd; cbv beta.
(* the whole remainder is a skeleton step *)
Ltac skfin := cbv beta; (eapply skc_run; [solve [skc_auto] | assumption | ]); intros; assumption.
Ltac wb := apply wp_bind; cbv beta.
Ltac wget := apply wp_bind, wp_get; cbv beta.
Ltac wmark := apply wp_bind, wp_mark; cbv beta.
Ltac kstep :=
  let s' := fresh "s" in let K := fresh "K" in let Bd := fresh "Bd" in let H := fresh "HI" in
  intros s' K Bd; assert (H : SI s') by (eapply si_keeps; [exact K|assumption]); cbv beta.
Ltac kstepv := let t := fresh "t" in intros t; kstep.
Ltac dif := match goal with |- wp (if ?b then _ else _) _ _ => destruct b end.
Ltac fin := cbv beta; apply wp_push_tok; [assumption|]; intros; assumption.

Definition post_si : unit -> st -> Prop := fun _ s' => SI s'.

(* weaker frame: no token consumed, the queue only grows (skeleton steps and character-level scanners) *)
Definition grows (s s' : st) : Prop :=
  sc_tokens_parsed s' = sc_tokens_parsed s /\ length (sc_tokens s) <= length (sc_tokens s').
Lemma grows_fr s s' : fr s s' -> grows s s'.
Proof. intros (_ & A & C). split; assumption. Qed.
Lemma grows_keeps s s' : keeps s s' -> grows s s'.
Proof. intros (_ & _ & A3 & A4 & _). split; [exact A4|rewrite A3; lia]. Qed.
Lemma grows_trans s1 s2 s3 : grows s1 s2 -> grows s2 s3 -> grows s1 s3.
Proof. intros [A1 A2] [B1 B2]. split; [congruence|lia]. Qed.
Lemma range_grows s s' k : grows s s' -> sk_in_range s k -> sk_in_range s' k.
Proof. intros [A1 A2]. apply range_mono; assumption. Qed.

Lemma j_keeps s s' : keeps s s' -> J s -> J s'.
Proof.
  intros K [H HJ]. split; [eapply sinv_keeps; eauto|].
  destruct K as (_ & _ & _ & _ & A5 & _ & _ & A9). rewrite A5. intros E. specialize (HJ E).
  destruct A9 as [[_ ->]|Au]; [exact HJ|]. rewrite HJ in Au. cbn [unroll_nb] in Au. congruence.
Qed.
Lemma j_ext s s' : same_skel s s' -> J s -> J s'.
Proof.
  intros K [H HJ]. split; [eapply sinv_ext; eauto|].
  destruct K as (_ & _ & E3 & _ & _ & _ & E7 & _). rewrite E3, E7. exact HJ.
Qed.

(* fetch_* *)
Lemma wp_fetch_stream_start s : J s -> sc_stream_start s = false -> wp fetch_stream_start post_si s.
Proof.
  intros [(I1 & I2 & I3) HJ] E. rewrite E in I1. destruct I1 as [EK EF]. specialize (HJ E).
  unfold fetch_stream_start. wget. apply wp_put. unfold post_si.
  apply si_intro; sproj.
  - reflexivity.
  - rewrite EK, EF. reflexivity.
  - rewrite HJ. reflexivity.
  - rewrite EK. constructor; [intros H; discriminate H|constructor].
Qed.

Lemma wp_fetch_stream_end s : SI s -> wp fetch_stream_end post_si s.
Proof.
  intros HI. unfold fetch_stream_end. sks. wget.
  destruct (existsb _ _); [apply wp_fail|].
  match goal with |- wp (bind (put ?x) _) _ _ => assert (HI2 : SI x) end.
  { apply si_set_sks; [assumption|apply map_length|]. apply Forall_forall. intros k Hk.
    apply in_map_iff in Hk. destruct Hk as [k0 [<- _]]. apply (range_clr s0 k0). }
  apply wp_bind, wp_put. skfin.
Qed.

Lemma wp_fetch_directive F s : SI s -> 1 <= avail s -> wp (fetch_directive B F) post_si s.
Proof.
  intros HI HB. unfold fetch_directive. sks. sks. sks.
  wb. eapply use_spec; [apply H_dir; lia|]. kstepv. fin.
Qed.

Lemma wp_fetch_tag F s : SI s -> wp (fetch_tag B F) post_si s.
Proof.
  intros HI. unfold fetch_tag. sks. sks.
  wb. eapply use_spec; [apply H_tag|]. kstepv. fin.
Qed.

Lemma wp_fetch_anchor F alias s : SI s -> 1 <= avail s -> wp (fetch_anchor B F alias) post_si s.
Proof.
  intros HI HB. unfold fetch_anchor. sks. sks.
  wb. eapply use_spec; [apply H_anchor; lia|]. kstepv. fin.
Qed.

Lemma wp_fetch_flow_collection_start F seq s : SI s -> wp (fetch_flow_collection_start B F seq) post_si s.
Proof.
  intros HI. unfold fetch_flow_collection_start. sks. sks. sks. sks. wmark.
  wb. apply wp_skip_non_blank. kstep.
  sks.
  wb. eapply use_spec; [apply H_ws|]. kstepv.
  wmark. fin.
Qed.

Lemma wp_fetch_flow_collection_end F seq s : SI s -> wp (fetch_flow_collection_end B F seq) post_si s.
Proof.
  intros HI. unfold fetch_flow_collection_end. sks. sks. sks. sks. sks. sks. wmark.
  wb. apply wp_skip_non_blank. kstep.
  wb. eapply use_spec; [apply H_ws|]. kstepv.
  sks. wmark. fin.
Qed.

Lemma wp_fetch_flow_entry F s : SI s -> wp (fetch_flow_entry B F) post_si s.
Proof.
  intros HI. unfold fetch_flow_entry. sks. sks. wmark. sks.
  wb. apply wp_skip_non_blank. kstep.
  wb. eapply use_spec; [apply H_ws|]. kstepv.
  wmark. fin.
Qed.

Lemma wp_fetch_block_entry F s : SI s -> wp (fetch_block_entry B F) post_si s.
Proof.
  intros HI. unfold fetch_block_entry. wget.
  dif; [apply wp_fail|]. dif; [apply wp_fail|].
  wb. apply wp_pure.
  { destruct (last _ _) as [sp tk]. destruct tk; try (apply wp_ret; reflexivity); (dif; [apply wp_fail|apply wp_ret; reflexivity]). }
  intros _. cbv zeta.
  wb. apply wp_skip_non_blank. kstep.
  sks.
  wb. eapply use_spec; [apply H_ws|]. kstepv.
  wb. apply wp_look; [lia|]. intros s3 Hs3 B3 _.
  assert (HI3 : SI s3) by (eapply si_keeps; [apply keeps_input; exact Hs3|assumption]).
  wb. apply wp_peek; [lia|]. intros c.
  wb. apply wp_peekn; [lia|]. intros nc. cbv beta.
  dif; [wmark; apply wp_fail|].
  wb. eapply use_spec; [apply H_ws|]. kstepv.
  wb. apply wp_look; [lia|]. intros s5 Hs5 B5 _.
  assert (HI5 : SI s5) by (eapply si_keeps; [apply keeps_input; exact Hs5|assumption]).
  wb. apply wp_peek; [lia|]. intros c'. cbv beta.
  sks. sks. sks. wmark. fin.
Qed.

Lemma wp_fetch_document_indicator t s : SI s -> 3 <= avail s -> wp (fetch_document_indicator B t) post_si s.
Proof.
  intros HI HB. unfold fetch_document_indicator. sks. sks. sks. wmark.
  wb. apply wp_skip_n_non_blank; [lia|]. kstep.
  wmark. fin.
Qed.

Lemma wp_fetch_block_scalar F literal s : SI s -> 1 <= avail s -> wp (fetch_block_scalar B F literal) post_si s.
Proof.
  intros HI HB. unfold fetch_block_scalar. sks. sks.
  wb. eapply use_spec; [apply H_block; lia|]. kstepv. fin.
Qed.

Lemma wp_fetch_flow_scalar F single s : SI s -> 1 <= avail s -> wp (fetch_flow_scalar B F single) post_si s.
Proof.
  intros HI HB. unfold fetch_flow_scalar. sks. sks.
  wb. eapply use_spec; [apply H_flow; lia|]. kstepv.
  wb. eapply use_spec; [apply H_next|]. kstepv.
  sks. fin.
Qed.

Lemma wp_fetch_plain_scalar F s : SI s -> wp (fetch_plain_scalar B F) post_si s.
Proof.
  intros HI. unfold fetch_plain_scalar. sks. sks.
  wb. eapply use_spec; [apply H_plain|]. kstepv. fin.
Qed.

Lemma wp_fetch_key F s : SI s -> wp (fetch_key B F) post_si s.
Proof.
  intros HI. unfold fetch_key. wget. cbv zeta. sks. sks. sks.
  wb. apply wp_skip_non_blank. kstep.
  wb. eapply use_spec; [apply H_yws|]. kstepv.
  wb. apply wp_peek; [lia|]. intros c. cbv beta.
  dif; [wmark; apply wp_fail|]. wmark. fin.
Qed.

(* panic 117: the simple-key stack is not empty; panic 118 / 111 / 112: the token number of a possible key lies
   in the queue *)
Lemma wp_fetch_value F s : SI s -> wp (fetch_value B F) post_si s.
Proof.
  intros HI. unfold fetch_value. wget.
  destruct (si_sks_nonempty _ HI) as (sk & r0 & EK). rewrite EK. wb. apply wp_ret. cbv beta zeta.
  assert (HR : sk_in_range s sk).
  { destruct (si_elim _ HI) as (_ & _ & _ & I3). rewrite EK in I3. inversion I3; assumption. }
  match goal with |- context [if ?a then modify _ else ret tt] => generalize a; intros ifm end.
  sks.
  wb. apply wp_skip_non_blank. kstep.
  wb. apply wp_mono with (Q := fun _ s2 => keeps s1 s2).
  { dif; [|apply wp_ret, keeps_refl].
    apply wp_look_ch. intros c s2 Hs2 B2 _. apply keeps_input; exact Hs2. }
  intros c s2 K2. cbv beta.
  assert (HI2 : SI s2) by (eapply si_keeps; [exact K2|assumption]).
  wb. apply wp_mono with (Q := fun _ s' => keeps s2 s').
  { dif; [|apply wp_ret, keeps_refl].
    wb. eapply use_spec; [apply H_ws|]. intros tw s3 K3 B3. cbv beta.
    dif; [|apply wp_ret; exact K3].
    wb. apply wp_peek; [lia|]. intros c'. cbv beta.
    dif; [wmark; apply wp_fail|apply wp_ret; exact K3]. }
  intros _ s3 K3. cbv beta.
  assert (HI3 : SI s3) by (eapply si_keeps; [exact K3|assumption]).
  assert (G : grows s s3).
  { eapply grows_trans; [apply grows_fr; eassumption|].
    eapply grows_trans; [apply grows_keeps; eassumption|].
    eapply grows_trans; [apply grows_keeps; exact K2|apply grows_keeps; exact K3]. }
  destruct (sk_possible sk) eqn:EP.
  - destruct (range_grows _ _ _ G HR EP) as [L1 L2].
    wget.
    wb. destruct (sk_token_number sk <? sc_tokens_parsed s3)%N eqn:EN; [apply N.ltb_lt in EN; lia|].
    apply wp_ret. cbv beta.
    wb. apply wp_insert_token; [assumption|lia|]. intros s4 HI4 F4. cbv beta.
    destruct F4 as (_ & T4 & L4).
    wb. apply wp_mono with (Q := fun _ s' => SI s' /\ fr s4 s').
    { dif; [|apply wp_ret; split; [assumption|apply fr_refl]].
      dif; [apply wp_fail|]. dif; [|apply wp_ret; split; [assumption|apply fr_refl]].
      apply wp_insert_token; [assumption|lia|]. intros; split; assumption. }
    intros _ s5 [HI5 (_ & T5 & L5)]. cbv beta.
    wb. apply wp_roll_indent; [assumption| |].
    { intros n Hn. injection Hn as <-. lia. }
    intros s6 HI6 _. cbv beta. skfin.
  - skfin.
Qed.

Lemma wp_fetch_flow_value F s : SI s -> 2 <= avail s -> wp (fetch_flow_value B F) post_si s.
Proof.
  intros HI HB. unfold fetch_flow_value.
  wb. apply wp_peekn; [lia|]. intros nc. wget.
  dif; [apply wp_fail|]. apply wp_fetch_value; assumption.
Qed.

(* fetch_next_token *)
Lemma wp_fetch_next_token F s : J s -> wp (fetch_next_token B F) post_si s.
Proof.
  intros HJ. rewrite fetch_next_token_shape.
  wb. apply wp_look; [lia|]. intros s1 Hs1 _ _.
  assert (HJ1 : J s1) by (eapply j_keeps; [apply keeps_input; exact Hs1|exact HJ]).
  wget.
  destruct (sc_stream_start s1) eqn:ES; cbn [negb]; [|apply wp_fetch_stream_start; assumption].
  assert (HI1 : SI s1) by (split; [apply HJ1|exact ES]).
  wb. eapply use_spec; [apply H_next|]. kstepv.
  sks. wmark. sks.
  wb. apply wp_look; [lia|]. intros s5 Hs5 B5 _.
  assert (HI5 : SI s5) by (eapply si_keeps; [apply keeps_input; exact Hs5|assumption]).
  wb. apply wp_next_is; [lia|]. intros z. cbv beta.
  destruct z; [apply wp_fetch_stream_end; assumption|].
  wget.
  wb. apply wp_peek; [lia|]. intros c0. cbv beta.
  wb. apply wp_pure.
  { repeat dif; try (apply wp_ret; reflexivity).
    apply wp_next_is_document_start; [lia|]. intros; reflexivity. }
  intros dstart.
  wb. apply wp_pure.
  { repeat dif; try (apply wp_ret; reflexivity).
    apply wp_next_is_document_end; [lia|]. intros; reflexivity. }
  intros dend.
  dif; [apply wp_fetch_directive; [assumption|lia]|].
  destruct dstart; [apply wp_fetch_document_indicator; [assumption|lia]|].
  destruct dend.
  { wb. eapply wp_mono; [apply wp_fetch_document_indicator; [assumption|lia]|].
    intros u6 s6 HI6. unfold post_si in HI6. cbv beta.
    wb. eapply use_spec; [apply H_ws|]. kstepv.
    wb. apply wp_next_is; [lia|]. intros b. cbv beta.
    destruct b; [apply wp_ret; assumption|wmark; apply wp_fail]. }
  dif; [apply wp_fail|].
  wb. apply wp_peek; [lia|]. intros c.
  wb. apply wp_peekn; [lia|]. intros nc. cbv beta.
  apply dispatch_cases. intros [] _; cbn [run_dact].
  - apply wp_fetch_flow_collection_start; assumption.
  - apply wp_fetch_flow_collection_end; assumption.
  - apply wp_fetch_flow_entry; assumption.
  - apply wp_fetch_block_entry; assumption.
  - apply wp_fetch_key; assumption.
  - apply wp_fetch_value; assumption.
  - apply wp_fetch_flow_value; [assumption|lia].
  - apply wp_fetch_anchor; [assumption|lia].
  - apply wp_fetch_tag; assumption.
  - apply wp_fetch_block_scalar; [assumption|lia].
  - apply wp_fetch_flow_scalar; [assumption|lia].
  - apply wp_fetch_plain_scalar; assumption.
  - apply wp_fail.
Qed.

(* fetch_more_tokens, next_token, scan_all *)
Lemma wp_fetch_more_tokens F : forall fuel s,
  J s -> wp (fetch_more_tokens B F fuel) (fun _ s' => J s' /\ nokey s') s.
Proof.
  induction fuel as [|fuel IH]; intros s HJ; cbn [fetch_more_tokens]; [apply wp_oof|].
  wget.
  wb. apply wp_mono with (Q := fun (b : bool) s' => J s' /\ (b = false -> nokey s')).
  - destruct (sc_tokens s) as [|t r]; [apply wp_ret; split; [exact HJ|discriminate]|].
    wb. apply wp_stale_J; [exact HJ|]. intros s1 HJ1 _ _ _. cbv beta. wget. apply wp_ret.
    split; [exact HJ1|]. intros EX k Hk Hp Heq.
    apply Bool.not_true_iff_false in EX. apply EX. apply existsb_exists. exists k. split; [exact Hk|].
    rewrite Hp, Heq, N.eqb_refl. reflexivity.
  - intros need s1 [HJ1 HN]. cbv beta. destruct need.
    + wb. eapply wp_mono; [apply wp_fetch_next_token; exact HJ1|]. intros u2 s2 HI2. unfold post_si in HI2. cbv beta.
      apply IH. apply si_J. exact HI2.
    + apply wp_modify. split; [eapply j_ext; [|exact HJ1]; skel_triv|]. exact (HN eq_refl).
Qed.

Lemma sinv'_ext s s' :
  same_skel s s' -> sc_token_available s' = sc_token_available s -> SInv' s -> SInv' s'.
Proof.
  intros K ET [HJ HT]. split; [eapply j_ext; eauto|]. rewrite ET. intros E. specialize (HT E).
  destruct K as (E1 & _ & _ & E4 & _). unfold nokey. rewrite E1, E4. exact HT.
Qed.

Lemma wp_next_token F s : SInv' s -> wp (next_token B F) (fun _ s' => SInv' s') s.
Proof.
  intros [HJ HT]. unfold next_token. wget.
  destruct (sc_stream_end s); [apply wp_ret; split; assumption|].
  wb. apply wp_mono with (Q := fun _ s' => J s' /\ nokey s').
  { destruct (sc_token_available s); [apply wp_ret; split; [exact HJ|apply HT; reflexivity]|].
    apply wp_fetch_more_tokens. exact HJ. }
  intros _ s1 [HJ1 HN1]. cbv beta. wget.
  destruct (sc_tokens s1) as [|t r] eqn:ETK; [apply wp_fail|].
  match goal with |- wp (bind (put ?x) _) _ _ => assert (H2 : SInv' x); [|set (s2 := x) in *] end.
  { destruct HJ1 as [(I1 & I2 & I3) HJ1]. split; [split|sproj; discriminate].
    - unfold SInv; sproj. split; [exact I1|]. split; [exact I2|].
      apply Forall_forall. intros k Hk. rewrite Forall_forall in I3. specialize (I3 k Hk).
      intros Hp. specialize (I3 Hp). specialize (HN1 k Hk Hp). sproj. rewrite ETK in I3. cbn [length] in I3. lia.
    - sproj. exact HJ1. }
  apply wp_bind, wp_put.
  wb. apply wp_mono with (Q := fun _ s' => SInv' s').
  { destruct (snd t); try (apply wp_ret; exact H2).
    all: apply wp_modify; eapply sinv'_ext; [| |exact H2]; [skel_triv|reflexivity]. }
  intros _ s3 H3. cbv beta. apply wp_ret. exact H3.
Qed.

Theorem scan_all_never_panics : forall F fuel s acc n,
  SInv' s -> snd (scan_all B F fuel s acc) <> SPanic n.
Proof.
  intros F. induction fuel as [|fuel IH]; intros s acc n H; cbn [scan_all]; [cbn [snd]; discriminate|].
  pose proof (wp_next_token F s H) as W. unfold wp in W.
  destruct (next_token B F s) as [[[t|] s']| | |]; cbn [snd]; try discriminate; [apply IH; exact W|contradiction].
Qed.

Lemma sinv'_init (i : I) : SInv' (init_sc i).
Proof.
  unfold SInv', J, SInv, init_sc; cbn.
  repeat split; auto; discriminate.
Qed.
End Skeleton.
