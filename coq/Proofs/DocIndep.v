(* C15, parser half: composition of token streams at a document-end marker.

   For ALL token lists [ta], [tb] (no bound, no assumption that they come from the scanner other than: [ta] contains
   no StreamEnd token):  if   StreamStart ta StreamEnd   and   StreamStart tb StreamEnd   are each accepted by the
   pull parser (tag handles not kept across documents), then

        StreamStart ta DocumentEnd tb StreamEnd

   is accepted, and its events are the events of the first stream without its StreamEnd event, followed by the events
   of the second stream without its StreamStart event in which every anchor id and alias id is shifted by the number
   of anchors the first stream defined.  Spans: the second part keeps the spans of its tokens; in the first part only
   the events that the parser derives from looking at the final token (it sees DocumentEnd instead of StreamEnd) may
   carry a different span.

   Three ingredients:
   (A) [sim_step]: replacing the final StreamEnd by "DocumentEnd rest" does not change what the state machine does
       until the first stream is over (the parser never distinguishes the two tokens outside the three document-level
       states);
   (B) at that point the parser is — field by field — the parser that has just read the StreamStart of the second
       stream, except for the anchor id counter ([document_end_resets]: anchors and tag handles are gone; C02: the
       state stack is empty);
   (C) [state_machine_shift]: a larger anchor id counter only renumbers. *)
From Coq Require Import List NArith Bool Lia.
Import ListNotations.
Require Import Parser Grammar C02base C02rest C02tail C02anchors DocReset DocRun DocShift DocSim ParserView.
Local Open Scope N_scope.


Lemma steps_end p l pe : p_state p = SEnd -> steps p l pe -> l = [] /\ pe = p.
Proof.
  intros E H. destruct H as [|p e p1 l p2 H1 H2]; [auto|]. unfold state_machine in H1. rewrite E in H1. discriminate.
Qed.
Lemma steps_first p q e l pe : state_machine p = state_machine q -> steps q (e :: l) pe -> steps p (e :: l) pe.
Proof. intros E H. inversion H; subst. econstructor; [rewrite E; eassumption|assumption]. Qed.
Lemma step_not_end p r : state_machine p = Ok r -> p_state p <> SEnd.
Proof. intros H E. unfold state_machine in H. rewrite E in H. discriminate. Qed.

(* anchors handed out along a run (C02: ids are 1, 2, 3, ...) *)
Lemma steps_arun : forall p evs pe, steps p evs pe -> forall k, AInv p k ->
  exists k', arun k (evs_of evs) = Some k' /\ AInv pe k'.
Proof.
  induction 1 as [p|p [e sp] p1 l p2 H1 H2 IH]; intros k HA; [exists k; cbn; auto|].
  pose proof (state_machine_apost k p HA (step_not_end _ _ H1)) as HP. rewrite H1 in HP. cbn in HP.
  destruct HP as (k1 & E1 & HA1). destruct (IH _ HA1) as (k' & E' & HA'). exists k'. cbn. rewrite E1. auto.
Qed.

(* the number of anchored nodes *)
Definition anchored (e : event) : bool :=
  match e with
  | EScalar _ _ aid _ | ESequenceStart aid _ | EMappingStart aid _ => negb (aid =? 0)
  | _ => false
  end.
Definition count_anchored (l : list event) : N := N.of_nat (length (filter anchored l)).
Lemma arun_count l : forall k k', arun k l = Some k' -> k' = k + count_anchored l.
Proof.
  unfold count_anchored. induction l as [|e l IH]; intros k k' H; cbn in H; [inversion H; cbn; lia|].
  destruct (aev k e) as [k1|] eqn:E; [|discriminate]. apply IH in H. subst k'.
  assert (k1 = k + (if anchored e then 1 else 0)).
  { unfold aev in E. destruct e; cbn [anchored]; try (inversion E; lia);
      try (destruct (_ && _); inversion E; lia);
      destruct (N.eqb_spec aid 0); cbn [negb]; try (inversion E; lia);
      destruct (N.eqb_spec aid (k + 1)); inversion E; lia. }
  cbn [filter]. destruct (anchored e); cbn [length]; lia.
Qed.

(* (C) along a run *)
Lemma shift_run d : forall p evs pe, steps p evs pe -> forall k, AInv p k ->
  steps (shiftp d p) (map (shift_evsp d) evs) (shiftp d pe).
Proof.
  induction 1 as [p|p [e sp] p1 l p2 H1 H2 IH]; intros k HA; [constructor|].
  pose proof (state_machine_apost k p HA (step_not_end _ _ H1)) as HP. rewrite H1 in HP. cbn in HP.
  destruct HP as (k1 & _ & HA1). cbn [map]. econstructor; [|eapply IH; exact HA1].
  rewrite state_machine_shift; [rewrite H1; reflexivity|]. destruct HA as [E _]. rewrite E. lia.
Qed.

Section Glue.
Variables sps spd : span.
Variable rest : list token.
Notation se := (sps, TStreamEnd).
Notation de := (spd, TDocumentEnd).

(* (A) along a run, up to the boundary (B) *)
Lemma sim_run : forall p1 evs pend, steps p1 evs pend -> p_state pend = SEnd ->
  forall p2 g, R sps spd rest p1 p2 -> DL p1 -> Inv p1 g ->
  exists pre pre' q2,
    evs = pre ++ [(EStreamEnd, sps)] /\ evs_of pre' = evs_of pre /\ steps p2 pre' q2
    /\ state_machine q2 = state_machine (pB rest [] (p_anchor_id pend)).
Proof.
  induction 1 as [p1|p1 [e sp] p1' l pend H1 H2 IH]; intros HE p2 g HR HD HI.
  - destruct HD as [HD _]. contradiction.
  - pose proof (state_machine_post p1 g HI (proj1 HD)) as HP. rewrite H1 in HP. cbn in HP. destruct HP as (g' & _ & HI').
    destruct (sim_step _ _ _ _ _ _ _ _ HR HD H1)
      as [(sp' & p2' & E2 & HR' & HD')
         |[(-> & -> & ES & ES' & EI & EM)
          |(-> & ES & ES' & ET & EI & EK & sp' & E2)]].
    + destruct (IH HE _ _ HR' HD' HI') as (pre & pre' & q2 & -> & EV & HS & HM).
      exists ((e, sp) :: pre), ((e, sp') :: pre'), q2. repeat split; auto.
      * unfold evs_of in *. cbn [map fst]. rewrite EV. reflexivity.
      * econstructor; eauto.
    + (* the first stream ends at a document start *)
      destruct (steps_end _ _ _ ES' H2) as [-> ->].
      exists [], [], p2. repeat split; [constructor|]. rewrite EM. f_equal.
      pose proof HR as (A & B & C & D & E & G & K & _). pose proof HD as (_ & HD2).
      unfold Inv in HI. rewrite ES in HI, HD2, A. cbn in HI, A. destruct HI as [HK _]. destruct HD2 as [HA HT].
      rewrite HK in B. assert (EB : p_states p2 = []) by (inversion B; reflexivity). rewrite EI, <- D.
      unfold restp, pB, set_tok. rewrite A, EB, C, HA, E, HT, K. reflexivity.
    + (* the first stream ends right after a document *)
      pose proof HR as (A & B & C & D & E & G & K & _).
      unfold Inv in HI. rewrite ES in HI. cbn in HI. destruct HI as [HK _].
      rewrite HK in B. assert (EB : p_states p2 = []) by (inversion B; reflexivity). rewrite EB in E2.
      (* the remaining step of the first parser: StreamEnd *)
      assert (HF : state_machine p1' = Ok ((EStreamEnd, sps), skip (set_state p1' SEnd))).
      { unfold state_machine. rewrite ES'. unfold document_start.
        rewrite (sde_cached _ _ _ ET) by discriminate. rewrite (peek_cached _ _ ET). reflexivity. }
      inversion H2 as [|? e2 p1'' l' ? H3 H4]; subst; [rewrite ES' in HE; discriminate|].
      rewrite HF in H3. inversion H3; subst.
      destruct (steps_end (skip (set_state p1' SEnd)) _ _ eq_refl H4) as [-> ->].
      exists [(EDocumentEnd, sp)], [(EDocumentEnd, sp')], (pB rest [] (p_anchor_id p2)).
      repeat split; [apply steps_one; exact E2|]. cbn [p_anchor_id skip set_tok set_state]. rewrite EI, D. reflexivity.
Qed.

End Glue.

(* the composition theorem *)
Theorem doc_composition ssA ta sps spd ssB tb seB evA evB :
  snd ssA = TStreamStart -> Forall (fun t => snd t <> TStreamEnd) ta ->
  accepts (ssA :: ta ++ [(sps, TStreamEnd)]) false evA ->
  accepts (ssB :: tb ++ [seB]) false evB ->
  exists pre pre' b n,
    evA = pre ++ [(EStreamEnd, sps)] /\ evB = (EStreamStart, fst ssB) :: b
    /\ arun 0 (evs_of evA) = Some n /\ n = count_anchored (evs_of evA)
    /\ evs_of pre' = evs_of pre
    /\ accepts (ssA :: ta ++ (spd, TDocumentEnd) :: tb ++ [seB]) false (pre' ++ map (shift_evsp n) b).
Proof.
  intros HSS HTA (pA & HA & EA) (pB' & HB & EB).
  set (rest := tb ++ [seB]).
  (* anchors of the first stream *)
  assert (AI0 : forall toks, AInv (start_parser toks false) 0).
  { intros toks. split; [reflexivity|]. intros nm id H. discriminate. }
  destruct (steps_arun _ _ _ HA 0 (AI0 _)) as (n & HN & [EN _]).
  (* (A) *)
  assert (HR : R sps spd rest (start_parser (ssA :: ta ++ [(sps, TStreamEnd)]) false)
                              (start_parser (ssA :: ta ++ (spd, TDocumentEnd) :: rest) false)).
  { unfold R; cbn [p_state p_states p_anchors p_anchor_id p_tags p_keep_tags start_parser].
    split; [reflexivity|]. split; [constructor|]. split; [reflexivity|]. split; [reflexivity|]. split; [reflexivity|].
    split; [reflexivity|]. split; [reflexivity|]. split; [|constructor].
    eapply (PhBody _ _ _ _ _ (ssA :: ta)); cbn; auto; [discriminate|]. constructor; [|exact HTA].
    unfold nonSE. rewrite HSS. discriminate. }
  destruct (sim_run sps spd rest _ _ _ HA EA _ GInit HR) as (pre & pre' & q2 & -> & EV & HS & HM).
  { unfold DL; cbn. split; [discriminate|auto]. }
  { unfold Inv; cbn. auto. }
  (* the second stream on its own: StreamStart, then the rest *)
  inversion HB as [|? e1 pB1 b ? H1 H2]; subst; [discriminate|].
  unfold state_machine, stream_start, peek in H1. cbn in H1. destruct ssB as [spB tkB]. destruct tkB; try discriminate.
  inversion H1; subst; clear H1.
  (* (C) *)
  match type of H2 with steps ?p _ _ => set (pB1 := p) in * end.
  assert (AI1 : AInv pB1 0) by (split; [reflexivity|intros nm id H; discriminate]).
  pose proof (shift_run n _ _ _ H2 0 AI1) as HSH.
  assert (EP : shiftp n pB1 = pB rest [] (p_anchor_id pA)).
  { replace (p_anchor_id pA) with (1 + n) by lia. reflexivity. }
  rewrite EP in HSH.
  destruct b as [|e b]; [inversion H2; subst; discriminate|].
  exists pre, pre', (e :: b), n. repeat split; auto.
  - symmetry. pose proof (arun_count _ _ _ HN). lia.
  - exists (shiftp n pB'). split; [|exact EB].
    eapply steps_app; [exact HS|]. cbn [map]. eapply steps_first; [exact HM|exact HSH].
Qed.

(* the same on events without spans *)
Corollary doc_composition_events ssA ta sps spd ssB tb seB evA evB :
  snd ssA = TStreamStart -> Forall (fun t => snd t <> TStreamEnd) ta ->
  accepts (ssA :: ta ++ [(sps, TStreamEnd)]) false evA ->
  accepts (ssB :: tb ++ [seB]) false evB ->
  exists evC,
    accepts (ssA :: ta ++ (spd, TDocumentEnd) :: tb ++ [seB]) false evC
    /\ evs_of evC = removelast (evs_of evA) ++ map (shift_ev (count_anchored (evs_of evA))) (tl (evs_of evB)).
Proof.
  intros H1 H2 H3 H4.
  destruct (doc_composition _ _ _ spd _ _ _ _ _ H1 H2 H3 H4) as (pre & pre' & b & n & -> & -> & _ & EN & EV & HC).
  eexists; split; [exact HC|]. rewrite <- EN. unfold evs_of in *. rewrite !map_app, EV. cbn [map fst tl].
  rewrite removelast_last. f_equal. rewrite !map_map. reflexivity.
Qed.

(* any number of streams *)
(* a well-formed accepted stream: StreamStart, a body without StreamEnd, StreamEnd *)
Definition Acc (T : list token) (E : list (event * span)) : Prop :=
  (exists ss t sps, T = ss :: t ++ [(sps, TStreamEnd)] /\ snd ss = TStreamStart
                    /\ Forall (fun x => snd x <> TStreamEnd) t)
  /\ accepts T false E.
(* A followed by a document-end marker (with span spd) and B: on tokens and on events *)
Definition glueT (spd : span) (TA TB : list token) : list token := removelast TA ++ (spd, TDocumentEnd) :: tl TB.
Definition glueE (a b : list event) : list event := removelast a ++ map (shift_ev (count_anchored a)) (tl b).

Theorem Acc_glue spd TA EA TB EB :
  Acc TA EA -> Acc TB EB -> exists EC, Acc (glueT spd TA TB) EC /\ evs_of EC = glueE (evs_of EA) (evs_of EB).
Proof.
  intros [(ssA & ta & spsA & -> & HA1 & HA2) HA] [(ssB & tb & spsB & -> & HB1 & HB2) HB].
  destruct (doc_composition_events ssA ta spsA spd ssB tb (spsB, TStreamEnd) EA EB HA1 HA2 HA HB) as (EC & HC & EV).
  assert (ET : glueT spd (ssA :: ta ++ [(spsA, TStreamEnd)]) (ssB :: tb ++ [(spsB, TStreamEnd)])
               = ssA :: (ta ++ (spd, TDocumentEnd) :: tb) ++ [(spsB, TStreamEnd)]).
  { unfold glueT. rewrite app_comm_cons, removelast_last. cbn [tl app]. rewrite <- app_assoc. reflexivity. }
  exists EC. split; [|exact EV]. rewrite ET. split.
  - exists ssA, (ta ++ (spd, TDocumentEnd) :: tb), spsB. repeat split; auto.
    apply Forall_app. split; [exact HA2|]. constructor; [discriminate|exact HB2].
  - rewrite <- app_assoc. exact HC.
Qed.

(* n + 1 streams, each accepted on its own, glued with markers of arbitrary spans *)
Fixpoint glue_allT (T0 : list token) (l : list (span * list token * list (event * span))) : list token :=
  match l with [] => T0 | (spd, T, _) :: r => glue_allT (glueT spd T0 T) r end.
Fixpoint glue_allE (e0 : list event) (l : list (span * list token * list (event * span))) : list event :=
  match l with [] => e0 | (_, _, E) :: r => glue_allE (glueE e0 (evs_of E)) r end.

Theorem doc_composition_many l : forall T0 E0,
  Acc T0 E0 -> Forall (fun x => Acc (snd (fst x)) (snd x)) l ->
  exists EC, Acc (glue_allT T0 l) EC /\ evs_of EC = glue_allE (evs_of E0) l.
Proof.
  induction l as [|[[spd T] E] r IH]; intros T0 E0 H0 HL; cbn [glue_allT glue_allE]; [eauto|].
  inversion HL as [|? ? HA HR]; subst. cbn [fst snd] in HA.
  destruct (Acc_glue spd _ _ _ _ H0 HA) as (E1 & H1 & EV1).
  destruct (IH _ _ H1 HR) as (EC & HC & EV). exists EC. split; [exact HC|]. rewrite EV, EV1. reflexivity.
Qed.
