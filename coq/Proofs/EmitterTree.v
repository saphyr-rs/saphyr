(* C09 — tree level: for every well-formed tree and every setting, the text the emitter model writes is a document of
   the block-layout language Spec/BlockLayout.v, and the tree that document denotes is the original one.  The scalar
   presentations are discharged by the scalar-level theorems (plain shape + resolver, escape round trip, literal
   block against the block-scalar specification, implicit-key length); the layout by induction on the tree. *)
From Coq Require Import List NArith ZArith Bool Arith Lia.
Import ListNotations.
Require Import Parser Resolver CoreSchema ResolverProofs Loader Consts QuotedLine BlockScalar BlockLayout
               Emitter EmitterProofs EmitterBlock EmitterScalar EmitterFull ListKit.
Open Scope N_scope.
Arguments N.eqb : simpl never.
Arguments N.leb : simpl never.
Arguments N.ltb : simpl never.

(* plain scalars *)
Lemma tbl_indicators_same : c_indicators = bl_indicators.   Proof. reflexivity. Qed.
Lemma tbl_unsafe_same : plain_unsafe = bl_unsafe.           Proof. reflexivity. Qed.
Lemma tbl_dot_prefix : In [46] nq_prefixes.                 Proof. cbn. tauto. Qed.

Lemma mem_true (c : N) (l : list N) : mem c l = true -> In c l.
Proof. unfold mem. intros E. apply existsb_exists in E. destruct E as (k & Hk & E). apply N.eqb_eq in E. subst. exact Hk. Qed.
Lemma mem_false (c : N) (l : list N) : ~ In c l -> mem c l = false.
Proof. intros H. destruct (mem c l) eqn:E; [|reflexivity]. exfalso. apply H. apply mem_true. exact E. Qed.

(* how plain_ok is established *)
Lemma plain_ok_intro (c : N) (r : list N) :
  c <> 32 -> last (c :: r) 0 <> 32 ->
  (mem c bl_indicators = false \/ (c = 45 /\ exists d r', r = d :: r' /\ d <> 32 /\ mem d bl_unsafe = false /\ d <> 45)) ->
  (forall x, In x (c :: r) -> mem x bl_unsafe = false) -> c <> 46 ->
  plain_ok (c :: r) = true.
Proof.
  intros H32 Hlast Hfirst Hall H46. unfold plain_ok.
  assert (A1 : (c =? 32) = false) by (apply N.eqb_neq; exact H32).
  assert (A2 : (last (c :: r) 0 =? 32) = false) by (apply N.eqb_neq; exact Hlast).
  assert (A3 : forallb (fun x => negb (mem x bl_unsafe)) (c :: r) = true).
  { apply forallb_forall. intros x Hx. rewrite (Hall x Hx). reflexivity. }
  assert (A4 : starts3 46 (c :: r) = false).
  { unfold starts3. destruct r as [|b [|d r']]; try reflexivity. apply N.eqb_neq in H46. rewrite H46. reflexivity. }
  rewrite A1, A2, A3, A4. cbn [negb andb]. rewrite andb_true_r.
  destruct Hfirst as [Hi|(-> & d & r' & -> & Hd32 & Hdu & Hd45)].
  - rewrite Hi. cbn [negb orb andb]. unfold starts3. destruct r as [|b [|d r']]; try reflexivity.
    destruct (N.eqb_spec c 45) as [->|]; [discriminate Hi|reflexivity].
  - apply N.eqb_neq in Hd32, Hd45. rewrite Hd32, Hdu. cbn. destruct r'; [reflexivity|]. rewrite Hd45. reflexivity.
Qed.

(* strings written plain *)
Lemma plain_ok_string (s : list N) : need_quotes s = false -> plain_ok s = true.
Proof.
  intros H. destruct (plain_shape s H) as (Hne & Hhd & Hlast & Hfirst & Hall).
  destruct (need_quotes_false s H) as (_ & _ & _ & _ & _ & _ & Hpre & _).
  destruct s as [|c r]; [exfalso; apply Hne; reflexivity|].
  destruct (Hfirst c eq_refl) as [_ Hind]. rewrite tbl_indicators_same in Hind.
  apply plain_ok_intro.
  - intros ->. apply Hhd. reflexivity.
  - apply Hlast. discriminate.
  - left. apply mem_false. exact Hind.
  - intros x Hx. apply mem_false. destruct (Hall x Hx) as [_ U]. rewrite tbl_unsafe_same in U. exact U.
  - intros ->. discriminate (existsb_false_In _ _ _ Hpre tbl_dot_prefix).
Qed.

(* digits are neither indicators nor unsafe, nor is '-' unsafe *)
Lemma dig_safe (c : N) : is_dig c = true -> c <> 32 /\ c <> 45 /\ c <> 46 /\ mem c bl_indicators = false /\ mem c bl_unsafe = false.
Proof.
  intros H. assert (X : forall l, forallb (fun k => negb (is_dig k)) l = true -> mem c l = false).
  { intros l Hl. apply mem_false. intros Hin. pose proof (proj1 (forallb_forall _ _) Hl _ Hin) as Y. cbv beta in Y. rewrite H in Y. discriminate Y. }
  repeat split; try (intros ->; discriminate H); apply X; reflexivity.
Qed.

Lemma float_char_safe (c : N) : float_text_char c = true -> c <> 32 /\ mem c bl_unsafe = false.
Proof.
  unfold float_text_char. intros H. apply orb_true_iff in H as [H|H].
  - destruct (dig_safe c H) as (A & _ & _ & _ & B). split; assumption.
  - apply existsb_exists in H. destruct H as (k & Hk & E). apply N.eqb_eq in E. subst k.
    cbn [In] in Hk. repeat (destruct Hk as [<-|Hk]; [split; [discriminate|reflexivity]|]). destruct Hk.
Qed.

(* the texts of numbers: an optional '-', a digit, then characters that are neither blank nor unsafe *)
Lemma plain_ok_number (neg : bool) (d : N) (ds : list N) :
  is_dig d = true -> (forall x, In x (d :: ds) -> x <> 32 /\ mem x bl_unsafe = false) ->
  plain_ok ((if neg then [45] else []) ++ d :: ds) = true.
Proof.
  intros Hd Hall. destruct (dig_safe d Hd) as (D1 & D2 & D3 & D4 & D5).
  assert (Hl : last (d :: ds) 0 <> 32) by (apply Hall, last_In; discriminate).
  destruct neg; cbn [app].
  - apply plain_ok_intro; try discriminate.
    + rewrite last_cons_ne by discriminate. exact Hl.
    + right. split; [reflexivity|]. exists d, ds. auto.
    + intros x [<-|Hx]; [reflexivity|]. apply Hall, Hx.
  - apply plain_ok_intro; auto. intros x Hx. apply Hall, Hx.
Qed.

Lemma plain_ok_int z : in_i64_b z = true -> plain_ok (dec_Z z) = true.
Proof.
  intros H. destruct (dec_Z_shape z H) as (neg & digs & -> & Hne & Hd & _).
  destruct digs as [|d ds]; [congruence|]. apply plain_ok_number; [apply Hd; left; reflexivity|].
  intros x Hx. destruct (dig_safe x (Hd x Hx)) as (A & _ & _ & _ & B). split; assumption.
Qed.

Lemma plain_ok_float (t : list N) : float_text_ok t = true -> plain_ok t = true.
Proof.
  intros H. destruct (float_text_ok_cases t H) as [H'|(Hd & F & _)].
  - destruct H' as [<-|[<-|[<-|[]]]]; reflexivity.
  - destruct t as [|c r]; [discriminate|].
    assert (Hall : forall x, In x (c :: r) -> x <> 32 /\ mem x bl_unsafe = false).
    { intros x Hx. apply float_char_safe. exact (proj1 (forallb_forall _ _) F _ Hx). }
    destruct (N.eqb_spec c 45) as [->|Hn45].
    + destruct r as [|d r']; [discriminate|]. apply (plain_ok_number true d r' Hd). intros x Hx. apply Hall. right. exact Hx.
    + exact (plain_ok_number false c r Hd Hall).
Qed.

(* scalars in every position *)
(* strings without U+FEFF (needed where a string is written as a literal block: the block-scalar specification, like
   YAML, excludes the byte order mark from the content) *)
Fixpoint no_bom (n : node) : bool :=
  match n with
  | NStr s => negb (existsb (N.eqb 65279) s)
  | NSeq l => forallb no_bom l
  | NMap l => forallb (fun kv => no_bom (fst kv) && no_bom (snd kv)) l
  | _ => true
  end.

Lemma no_bom_str (s : list N) : negb (existsb (N.eqb 65279) s) = true -> ~ In 65279 s.
Proof. intros H X. apply negb_true_iff in H. discriminate (existsb_false_In _ _ _ H X). Qed.

Definition scalar_of (n : node) : scalar :=
  match n with
  | NNull => SNull | NBool b => SBool b | NInt z => SInt z | NFloat t => parse_from_cow t | NStr s => SStr s
  | _ => SNull
  end.
Lemma to_yaml_scalar n : is_collection n = false -> to_yaml n = YVal (scalar_of n).
Proof. destruct n; try discriminate; reflexivity. Qed.

(* S1. how a scalar node is written: a string the guard lets through as a literal block; else one line, either plain
   text that the resolver reads as the scalar, or the double-quoted form of a string *)
Lemma scalar_forms c m level n : is_collection n = false -> wf_node n = true ->
  (exists s, n = NStr s /\ is_literal_block m level s = true)
  \/ (plain_ok (emit c m None level n) = true /\ parse_from_cow (emit c m None level n) = scalar_of n)
  \/ (exists s, n = NStr s /\ emit c m None level n = escape_str s).
Proof.
  intros Hc Hwf. destruct n as [|b|z|t|s|l|l]; try discriminate Hc; cbn [emit scalar_prefix app scalar_of wf_node] in *.
  - right. left. split; reflexivity.
  - right. left. destruct b; split; reflexivity.
  - right. left. split; [apply plain_ok_int|apply int_text_round_trip]; exact Hwf.
  - right. left. apply andb_true_iff in Hwf as [_ Hf]. split; [apply plain_ok_float; exact Hf|reflexivity].
  - unfold emit_string. destruct (is_literal_block m level s) eqn:G; [left; exists s; auto|right].
    destruct (need_quotes s) eqn:Q; [right; exists s; auto|left].
    split; [apply plain_ok_string|apply plain_resolves_to_string]; exact Q.
Qed.

(* S2. every scalar node, as emit_node writes it at any level under any parent it is indented more than *)
Theorem scalar_node c m p level n : is_collection n = false -> wf_node n = true -> no_bom n = true ->
  Nat.leb (parent_min p) (ind_n level) = true -> Scalar p (emit c m None level n) (scalar_of n).
Proof.
  intros Hc Hwf Hb Hfit. destruct (scalar_forms c m level n Hc Hwf) as [(s & -> & G)|[[Hp <-]|(s & -> & E)]].
  - cbn [emit scalar_prefix app scalar_of]. unfold emit_string. rewrite G.
    pose proof (ScBlock p (lit_case [] p level s EofNone) eq_refl eq_refl eq_refl eq_refl
                        (literal_block_case_ok m level s G [] p EofNone (no_bom_str s Hb) Hfit eq_refl)) as H.
    rewrite (literal_block_text m level s G), (literal_block_value m level s G) in H.
    cbn [app eof_text] in H. rewrite app_nil_r in H. exact H.
  - apply ScPlain. exact Hp.
  - rewrite E. apply (ScQuoted p (escape_body s) (S (length s)) s). apply escape_body_decodes.
Qed.

(* S3. ... and as an implicit key *)
Theorem key_scalar c m level k : wf_node k = true -> complex_key m level k = false ->
  KeyScalar (emit c m None level k) (scalar_of k).
Proof.
  intros Hwf Hck. destruct (implicit_key_fits c m level k Hwf Hck) as [Hlen _].
  destruct (complex_key_false _ _ _ Hck) as [Hc Hstr]. unfold str_len in Hlen.
  destruct (scalar_forms c m level k Hc Hwf) as [(s & -> & G)|[[Hp <-]|(s & -> & E)]].
  - destruct (Hstr s eq_refl) as [G' _]. congruence.
  - apply KsPlain; assumption.
  - rewrite E in *. apply (KsQuoted (escape_body s) (S (length s)) s); [apply escape_body_decodes|exact Hlen].
Qed.

(* layout *)
Lemma ind_n_succ level : (-1 <= level)%Z -> ind_n (level + 1) = (ind_n level + 2)%nat.
Proof.
  intros H. rewrite (ind_n_inner (level + 1)) by lia. destruct (Z.eq_dec level (-1)) as [->|Hne].
  - rewrite ind_n_root by lia. reflexivity.
  - rewrite (ind_n_inner level) by lia. lia.
Qed.

Lemma indent_sp level : indent (level + 1) = sp (ind_n level).
Proof. rewrite indent_spaces. reflexivity. Qed.

Lemma join_entries_flat n (e : list N) es : join_entries n (e :: es) = e ++ flat_map (fun e' => 10 :: sp n ++ e') es.
Proof.
  revert e. induction es as [|e2 es IH]; intros e; [cbn; rewrite app_nil_r; reflexivity|].
  change (join_entries n (e :: e2 :: es)) with (e ++ 10 :: sp n ++ join_entries n (e2 :: es)).
  rewrite IH. cbn [flat_map app]. rewrite <- app_assoc. reflexivity.
Qed.

(* a text written entry by entry, every entry after the first behind a line feed and [n] spaces, is join_entries *)
Lemma entries_join {A} (f : A -> list N) (g : bool -> list A -> list N) n :
  (forall first x r, g first (x :: r) = (if first : bool then [] else 10 :: sp n) ++ f x ++ g false r) -> g false [] = [] ->
  forall x r, g true (x :: r) = join_entries n (map f (x :: r)).
Proof.
  intros Hstep Hnil x r. rewrite Hstep. cbn [map app]. rewrite join_entries_flat. f_equal.
  induction r as [|y r IH]; [exact Hnil|]. rewrite Hstep, IH. cbn [map flat_map app]. rewrite <- app_assoc. reflexivity.
Qed.

Lemma Forall2_map_same {A B C} (R : B -> C -> Prop) (f : A -> B) (g : A -> C) l :
  Forall (fun x => R (f x) (g x)) l -> Forall2 R (map f l) (map g l).
Proof. induction 1; cbn [map]; constructor; assumption. Qed.

Definition nonempty_coll (n : node) : bool :=
  match n with NSeq (_ :: _) | NMap (_ :: _) => true | _ => false end.

Section Layout.
Variables c m : bool.

(* the local fixpoints of emit, named *)
Definition items_text (level : Z) : bool -> list node -> str :=
  fix items (first : bool) (l : list node) : str :=
    match l with
    | [] => []
    | x :: r => (if first then [] else 10 :: indent (level + 1)) ++ [45] ++ emit c m (Some true) (level + 1) x
                ++ items false r
    end.
Definition pair_text (level : Z) (k x : node) : str :=
  if complex_key m (level + 1) k
  then [63] ++ emit c m (Some true) (level + 1) k ++ 10 :: indent (level + 1) ++ [58]
       ++ emit c m (Some true) (level + 1) x
  else emit c m None (level + 1) k ++ [58] ++ emit c m (Some false) (level + 1) x.
Definition pairs_text (level : Z) : bool -> list (node * node) -> str :=
  fix pairs (first : bool) (l : list (node * node)) : str :=
    match l with
    | [] => []
    | (k, x) :: r => (if first then [] else 10 :: indent (level + 1)) ++ pair_text level k x ++ pairs false r
    end.

Lemma emit_seq mode level v :
  emit c m mode level (NSeq v)
  = val_prefix c mode level (is_nil v) ++ match v with [] => [91; 93] | _ => items_text level true v end.
Proof. destruct v; reflexivity. Qed.
Lemma emit_map mode level h :
  emit c m mode level (NMap h)
  = val_prefix c mode level (is_nil h) ++ match h with [] => [123; 125] | _ => pairs_text level true h end.
Proof. destruct h; reflexivity. Qed.

(* behind an indicator a scalar is written like an empty collection: after one space *)
Lemma emit_mode b level n :
  emit c m (Some b) level n = val_prefix c (Some b) level (negb (nonempty_coll n)) ++ emit c m None level n.
Proof.
  destruct n as [| | | | |[|x l]|[|kv l]]; cbn [emit scalar_prefix val_prefix nonempty_coll negb app];
    rewrite ?orb_true_r; reflexivity.
Qed.

Lemma items_join level x r :
  items_text level true (x :: r)
  = join_entries (ind_n level) (map (cons 45) (map (emit c m (Some true) (level + 1)) (x :: r))).
Proof.
  rewrite map_map. apply (entries_join (fun x => 45 :: emit c m (Some true) (level + 1) x) (items_text level)); [|reflexivity].
  intros first y l. rewrite <- indent_sp. destruct first; reflexivity.
Qed.
Lemma pairs_join level kv r :
  pairs_text level true (kv :: r)
  = join_entries (ind_n level) (map (fun kv => pair_text level (fst kv) (snd kv)) (kv :: r)).
Proof.
  apply (entries_join (fun kv => pair_text level (fst kv) (snd kv)) (pairs_text level)); [|reflexivity].
  intros first [k y] l. rewrite <- indent_sp. destruct first; reflexivity.
Qed.

(* what is shown for every node, by induction *)
Definition layout_ok (n : node) : Prop :=
  forall level, (-1 <= level)%Z -> wf_node n = true -> no_bom n = true ->
  (nonempty_coll n = false -> forall p, Nat.leb (parent_min p) (ind_n level) = true ->
                              Flat p (emit c m None level n) (to_yaml n))
  /\ (nonempty_coll n = true -> Block (ind_n level) (emit c m None level n) (to_yaml n)).

Lemma fits_child level : (-1 <= level)%Z -> Nat.leb (parent_min (Some (ind_n level))) (ind_n (level + 1)) = true.
Proof. intros H. rewrite ind_n_succ by exact H. cbn [parent_min]. apply Nat.leb_le. lia. Qed.

(* the value after `-`, `?` or an explicit `:` of an entry of a collection emitted at [level] *)
Lemma val_of_layout n level : (-1 <= level)%Z -> layout_ok n -> wf_node n = true -> no_bom n = true ->
  Val (ind_n level) (emit c m (Some true) (level + 1) n) (to_yaml n).
Proof.
  intros Hl L Hwf Hb. destruct (L (level + 1)%Z ltac:(lia) Hwf Hb) as [La Lb].
  rewrite emit_mode. destruct (nonempty_coll n); cbn [negb val_prefix].
  - destruct c; cbn [andb orb].
    + apply VSameLine. rewrite <- ind_n_succ by exact Hl. apply Lb. reflexivity.
    + rewrite (indent_sp (level + 1)). apply VBelow; [rewrite ind_n_succ by exact Hl; lia|]. apply Lb. reflexivity.
  - rewrite orb_true_r. apply VFlat. apply La; [reflexivity|apply fits_child; exact Hl].
Qed.

(* the value after the `:` of an implicit key *)
Lemma mval_of_layout n level : (-1 <= level)%Z -> layout_ok n -> wf_node n = true -> no_bom n = true ->
  MVal (ind_n level) (emit c m (Some false) (level + 1) n) (to_yaml n).
Proof.
  intros Hl L Hwf Hb. destruct (L (level + 1)%Z ltac:(lia) Hwf Hb) as [La Lb].
  rewrite emit_mode. destruct (nonempty_coll n); cbn [negb val_prefix andb orb].
  - rewrite (indent_sp (level + 1)). apply MBelow; [rewrite ind_n_succ by exact Hl; lia|]. apply Lb. reflexivity.
  - apply MFlat. apply La; [reflexivity|apply fits_child; exact Hl].
Qed.

(* a mapping entry *)
Lemma pair_of_layout k x level : (-1 <= level)%Z -> layout_ok k -> layout_ok x ->
  wf_node k = true -> wf_node x = true -> no_bom k = true -> no_bom x = true ->
  Pair (ind_n level) (pair_text level k x) (to_yaml k, to_yaml x).
Proof.
  intros Hl Lk Lx Wk Wx Bk Bx. unfold pair_text. destruct (complex_key m (level + 1) k) eqn:Ck.
  - rewrite indent_sp. cbn [app]. apply PExplicit; apply val_of_layout; assumption.
  - destruct (complex_key_false _ _ _ Ck) as [Hc _]. rewrite (to_yaml_scalar k Hc). cbn [app].
    apply PImplicit; [apply key_scalar; assumption|apply mval_of_layout; assumption].
Qed.

Theorem layout_all n : layout_ok n.
Proof.
  induction n as [|b|z|t|s|l IH|l IH] using node_ind'; intros level Hl Hwf Hb.
  1-5: (split; [intros _ p Hfit|discriminate]); rewrite to_yaml_scalar by reflexivity; apply FScalar;
       apply scalar_node; solve [reflexivity|assumption].
  - (* sequences *)
    destruct l as [|x r].
    + split; [intros _ p _|discriminate]. apply FEmptySeq.
    + split; [discriminate|intros _]. rewrite emit_seq. cbn [val_prefix app is_nil]. rewrite items_join.
      change (to_yaml (NSeq (x :: r))) with (YSeq (map to_yaml (x :: r))).
      apply BSeq; [discriminate|]. apply Forall2_map_same.
      cbn [wf_node] in Hwf. cbn [no_bom] in Hb. rewrite forallb_forall in Hwf, Hb. rewrite Forall_forall in IH |- *.
      intros y Hy. apply val_of_layout; auto.
  - (* mappings *)
    destruct l as [|kv r].
    + split; [intros _ p _|discriminate]. apply FEmptyMap.
    + split; [discriminate|intros _]. rewrite emit_map. cbn [val_prefix app is_nil]. rewrite pairs_join.
      change (to_yaml (NMap (kv :: r))) with (YMap (map (fun kv => (to_yaml (fst kv), to_yaml (snd kv))) (kv :: r))).
      cbn [wf_node] in Hwf. apply andb_true_iff in Hwf as [Hwf Hd]. cbn [no_bom] in Hb.
      apply BMap; [discriminate| |].
      * apply Forall2_map_same. rewrite forallb_forall in Hwf, Hb. rewrite Forall_forall in IH |- *.
        intros y Hy. specialize (Hwf y Hy). specialize (Hb y Hy). specialize (IH y Hy). cbv beta in Hwf, Hb.
        apply andb_true_iff in Hwf as [W1 W2]. apply andb_true_iff in Hb as [B1 B2]. destruct IH as [I1 I2].
        apply pair_of_layout; assumption.
      * rewrite map_map. cbn [fst]. exact Hd.
Qed.
End Layout.

(* the document *)
(* C. For every well-formed tree without U+FEFF in its strings and every setting, the emitted text is a document of
   the block-layout language and denotes the tree. *)
Theorem emitted_doc_denotes_tree c m doc : wf_node doc = true -> no_bom doc = true ->
  Doc (dump_doc c m doc) (to_yaml doc).
Proof.
  intros Hwf Hb. unfold dump_doc, emit_node.
  destruct (layout_all c m doc (-1)%Z ltac:(lia) Hwf Hb) as [La Lb].
  destruct (nonempty_coll doc) eqn:Hn.
  - apply DBlock. rewrite <- (ind_n_root (-1)) by lia. apply Lb. reflexivity.
  - apply DFlat. apply La; reflexivity.
Qed.

(* what is missing for C09_full: the loading pipeline (scanner, parser and loader models) reads every document of the
   block-layout language as the tree it denotes *)
Definition layout_reader_spec : Prop :=
  forall text y, Doc text y -> exists y', PipeL.run_load text = PipeL.LDocs [y'] /\ yaml_eqb y' y = true.

Theorem full_from_layout_reader : layout_reader_spec ->
  forall compact multiline doc, wf_node doc = true -> no_bom doc = true -> round_trip_ok compact multiline doc = true.
Proof.
  intros R c m doc Hwf Hb. destruct (R _ _ (emitted_doc_denotes_tree c m doc Hwf Hb)) as (y' & E & Q).
  unfold round_trip_ok. rewrite E. exact Q.
Qed.

Lemma round_trip_ok_loads c m doc : round_trip_ok c m doc = true ->
  exists y', PipeL.run_load (dump_doc c m doc) = PipeL.LDocs [y'] /\ yaml_eqb y' (to_yaml doc) = true.
Proof.
  unfold round_trip_ok. intros H. destruct (PipeL.run_load (dump_doc c m doc)) as [[|y [|y2 r]]| |]; try discriminate H.
  exists y. split; [reflexivity|exact H].
Qed.

(* an instance: the grammar membership of a mixed tree, and the layout reader specification on it (by evaluation) *)
Lemma sample_layout_instance :
  Doc (dump_doc true true sample_tree) (to_yaml sample_tree)
  /\ exists y', PipeL.run_load (dump_doc true true sample_tree) = PipeL.LDocs [y'] /\ yaml_eqb y' (to_yaml sample_tree) = true.
Proof.
  destruct sample_tree_ok as (Hwf & _ & _ & H & _).
  split; [apply emitted_doc_denotes_tree; [exact Hwf|vm_compute; reflexivity]|apply round_trip_ok_loads; exact H].
Qed.
