(* What ScanPairPrim.v says about the primitives, read in the calculus [rwp] of ScanRel.v. *)
From Coq Require Import List NArith ZArith Bool Arith Lia.
Import ListNotations.
Require Import SBase SPrim SBuf InputRefine ScanRel.
Require ScanPairPrim.
Local Open Scope nat_scope.

Lemma rn1_tl (t1 s1 : st1) i : rem1 t1 = tl (rem1 s1) -> rn1 t1 i = rn1 s1 (S i).
Proof. exact (ScanPairPrim.rn1_tl t1 s1 i). Qed.

(* a related pair of states is one skeleton with two inputs *)
Definition with_in {I} (i : I) (u : sc unit) : sc I :=
  {| sc_in := i; sc_mark := sc_mark u; sc_tokens := sc_tokens u;
     sc_stream_start := sc_stream_start u; sc_stream_end := sc_stream_end u; sc_adjacent := sc_adjacent u;
     sc_ska := sc_ska u; sc_sks := sc_sks u; sc_indent := sc_indent u; sc_indents := sc_indents u;
     sc_flow_level := sc_flow_level u; sc_tokens_parsed := sc_tokens_parsed u;
     sc_token_available := sc_token_available u; sc_lws := sc_lws u; sc_ifms := sc_ifms u |}.
Lemma SR_split s1 s2 : SR s1 s2 -> exists i1 i2 u, s1 = with_in i1 u /\ s2 = with_in i2 u /\ Rel i1 i2.
Proof. exact (ScanPairPrim.SR_split s1 s2). Qed.
Lemma SR_with_in i1 i2 u : Rel i1 i2 -> SR (with_in i1 u) (with_in i2 u).
Proof. exact (ScanPairPrim.SR_with_in i1 i2 u). Qed.

(* the skeleton of the buffered side follows the skeleton of the string side *)
Lemma SR_erase2 s1 s2 t1 t2 : SR s1 s2 -> SR t1 t2 -> erase t1 = erase s1 -> erase t2 = erase s2.
Proof. exact (ScanPairPrim.SR_erase2 s1 s2 t1 t2). Qed.

Lemma rwp_rpost_weaken {A} k k' (m1 : M1 A) (m2 : M2 A) s1 s2 :
  rwp m1 m2 (rpost k) s1 s2 -> k' <= k -> rwp m1 m2 (rpost k') s1 s2.
Proof.
  intros H Hk. apply (rwp_pair 0). apply (ScanPairPrim.rwp_rpost_weaken false 0 k k'); [|exact Hk].
  apply (rwp_pair 0). exact H.
Qed.

Lemma rwp_in_flow (Q : bool -> st1 -> bool -> st2 -> Prop) s1 s2 :
  SR s1 s2 -> Q (0 <? sc_flow_level s1)%N s1 (0 <? sc_flow_level s1)%N s2 -> rwp in_flow in_flow Q s1 s2.
Proof. intros HS HQ. apply (rwp_pair 0). exact (ScanPairPrim.rwp_in_flow false 0 Q s1 s2 HS HQ). Qed.

(* number of characters [skip_linebreak] / [skip_break] consume *)
Definition lb_len (s1 : st1) : nat :=
  if ((rn1 s1 0 =? 13) && (rn1 s1 1 =? 10))%N then 2 else if is_break (rn1 s1 0) then 1 else 0.
Lemma lb_len_le2 s1 : lb_len s1 <= 2.
Proof. exact (ScanPairPrim.lb_len_le2 s1). Qed.
Lemma lb_len_break s1 : is_break (rn1 s1 0) = true -> 1 <= lb_len s1.
Proof. exact (ScanPairPrim.lb_len_break s1). Qed.

Section RelPrim.
Variable cap : nat.
Hypothesis cap_ge : 8 <= cap.
Notation sops := str_ops.
Notation bops := (buf_ops cap).

(* next_char_is c: one character buffered; both sides compare the string side's next character *)
Lemma rwp_next_char_is c (Q : bool -> st1 -> bool -> st2 -> Prop) s1 s2 :
  SR s1 s2 -> 1 <= bl2 s2 -> Q (rn1 s1 0 =? c)%N s1 (rn1 s1 0 =? c)%N s2 ->
  rwp (next_char_is sops c) (next_char_is bops c) Q s1 s2.
Proof using cap_ge.
  intros HS HB HQ. apply (rwp_pair 0). exact (ScanPairPrim.rwp_next_char_is cap cap_ge false 0 c Q s1 s2 HS HB HQ).
Qed.

Lemma skipn_tl {A} j (l : list A) : skipn j (tl l) = skipn (S j) l.
Proof. exact (ScanPairPrim.skipn_tl j l). Qed.

End RelPrim.
