(* Joint proof "every position the scanner reports is a true position" (see SCANPOS.md): the whitespace / comment
   skipping family of Model/SPrim.v.
   Part (a): derived rules everybody reuses - advancing the mark over k non-break characters at once
   ([markat_step_many], [pwp_adv_mark_over]), [skip_n_non_blank], the bulk input loops ([in_skip_while*],
   [in_fetch_while_alpha], [in_skip_ws_to_eol]) exposing WHAT they consumed, [skip_linebreak], and the fact that
   lookahead does not disturb the invariant.
   Part (b): the three contracts pos_skip_ws_to_eol, pos_skip_to_next_token, pos_skip_yaml_whitespace.
   After the section closes every rule of the section takes [orig no_nul] as its first two arguments. *)
From Coq Require Import List NArith ZArith Bool Arith Lia.
Import ListNotations.
Require Import Parser SBase SPrim SDir SScalar SFetch Positions ScalarKit ScanPos.
Local Open Scope nat_scope.

Arguments Nat.ltb : simpl never.
Arguments Nat.leb : simpl never.
Arguments Nat.eqb : simpl never.
Arguments Nat.sub : simpl never.

(* character classes: what the loop predicates guarantee *)
Lemma breakz_false c : is_breakz c = false -> is_break c = false /\ c <> 0%N.
Proof.
  unfold is_breakz, is_z. intros H. apply orb_false_iff in H as [H1 H2]. split; [exact H1|]. apply N.eqb_neq. exact H2.
Qed.
Lemma breakz_false_break c : is_breakz c = false -> is_break c = false.
Proof. intros H. apply (breakz_false c H). Qed.
Lemma breakz_false_nz c : is_breakz c = false -> c <> 0%N.
Proof. intros H. apply (breakz_false c H). Qed.

Lemma blank_not_breakz c : is_blank c = true -> is_breakz c = false.
Proof. unfold is_blank. intros H. apply orb_true_iff in H as [H|H]; apply N.eqb_eq in H; subst c; reflexivity. Qed.
(* a character class that rejects LF, CR and NUL: [H] is the membership of [c] *)
Ltac class_not_breakz c H :=
  let B := fresh "B" in
  destruct (is_breakz c) eqn:B; [|reflexivity]; exfalso; unfold is_breakz, is_break, is_z in B;
  repeat (apply orb_true_iff in B as [B|B]); apply N.eqb_eq in B; subst c; vm_compute in H; discriminate H.
Lemma alpha_not_breakz c : is_alpha c = true -> is_breakz c = false.
Proof. intros H. class_not_breakz c H. Qed.
Lemma hex_not_breakz c : is_hex c = true -> is_breakz c = false.
Proof. intros H. class_not_breakz c H. Qed.
Lemma digit_not_breakz c : is_digit c = true -> is_breakz c = false.
Proof. intros H. class_not_breakz c H. Qed.
Lemma eqb_not_breakz c k : (c =? k)%N = true -> is_breakz k = false -> is_breakz c = false.
Proof. intros H Hk. apply N.eqb_eq in H. subst c. exact Hk. Qed.
Lemma negb_breakz_not_breakz c : negb (is_breakz c) = true -> is_breakz c = false.
Proof. apply negb_true_iff. Qed.
Lemma tab_or_space_not_breakz c : ((c =? 9) || (c =? 32))%N = true -> is_breakz c = false.
Proof. intros H. apply orb_true_iff in H as [H|H]; apply N.eqb_eq in H; subst c; reflexivity. Qed.

Lemma Forall_not_breakz_nonbreak (w : list chr) :
  Forall (fun c => is_breakz c = false) w -> Forall (fun c => is_break c = false) w.
Proof. apply Forall_impl. exact breakz_false_break. Qed.
Lemma Forall_pred_nonbreak (p : chr -> bool) (w : list chr) :
  (forall c, p c = true -> is_breakz c = false) -> Forall (fun c => p c = true) w -> Forall (fun c => is_break c = false) w.
Proof. intros Hp. apply Forall_impl. intros c Hc. apply breakz_false_break, Hp, Hc. Qed.

(* the remaining input: a character that is not NUL is really there *)
Lemma rem_head_nz s : rnth s 0 <> 0%N -> rem s = rnth s 0 :: tl (rem s).
Proof. unfold rnth. destruct (rem s) as [|c r]; cbn [nth tl]; [congruence|reflexivity]. Qed.
Lemma rnth_nz_lt s i : rnth s i <> 0%N -> i < length (rem s).
Proof.
  intros H. destruct (Nat.lt_ge_cases i (length (rem s))) as [L|G]; [exact L|]. exfalso. apply H. unfold rnth.
  apply nth_overflow. exact G.
Qed.
Lemma rnth_eq s s' i : rem s' = rem s -> rnth s' i = rnth s i.
Proof. unfold rnth. intros ->. reflexivity. Qed.

Lemma firstn_nonbreak (l : list chr) n :
  n <= length l -> (forall i, i < n -> is_break (nth i l 0%N) = false) -> Forall (fun c => is_break c = false) (firstn n l).
Proof.
  revert l. induction n as [|n IH]; intros l Hl H; [constructor|].
  destruct l as [|c l]; [cbn in Hl; lia|]. cbn [firstn]. constructor.
  - apply (H 0). lia.
  - apply IH; [cbn in Hl; lia|]. intros i Hi. apply (H (S i)). lia.
Qed.
Lemma not_breakz_prefix (l : list chr) n :
  (forall i, i < n -> is_breakz (nth i l 0%N) = false) -> n <= length l.
Proof.
  revert l. induction n as [|n IH]; intros l H; [lia|].
  destruct l as [|c l]; [specialize (H 0 ltac:(lia)); cbn in H; discriminate H|].
  cbn [length]. apply le_n_S. apply IH. intros i Hi. apply (H (S i)). lia.
Qed.

(* "only the input changed" *)
Definition inonly (s s' : sst) : Prop := s' = set_in (sc_in s') s.
Lemma inonly_refl s : inonly s s.
Proof. unfold inonly. destruct s; reflexivity. Qed.
Lemma inonly_trans a b c : inonly a b -> inonly b c -> inonly a c.
Proof.
  unfold inonly. intros H1 H2. transitivity (set_in (sc_in c) (set_in (sc_in b) a)); [rewrite <- H1; exact H2|reflexivity].
Qed.
Lemma inonly_keeps s s' : inonly s s' -> pkeeps s s' /\ sc_mark s' = sc_mark s.
Proof. apply in_keeps. Qed.
Lemma inonly_pkeeps s s' : inonly s s' -> pkeeps s s'.
Proof. intros H. apply (in_keeps _ _ H). Qed.
Lemma inonly_mark s s' : inonly s s' -> sc_mark s' = sc_mark s.
Proof. intros H. apply (in_keeps _ _ H). Qed.

Ltac ino :=
  match goal with
  | |- inonly ?a ?a => apply inonly_refl
  | H : inonly ?a ?b |- inonly ?a ?b => exact H
  | H : inonly ?a ?b |- inonly ?a ?c => apply (inonly_trans a b c H); ino
  end.

(* mark arithmetic *)
Lemma of_nat_snoc {A} (w : list A) (c : A) : (N.of_nat (length w) + 1)%N = N.of_nat (length (w ++ [c])).
Proof. rewrite app_length. cbn [length]. lia. Qed.

(* in_skip on a character that is not NUL really drops that character (any error predicate) *)
Lemma swp_in_skip_real E (Q : unit -> sst -> Prop) s :
  rnth s 0 <> 0%N -> (forall s', rem s = rnth s 0 :: rem s' -> inonly s s' -> Q tt s') -> swp E (in_skip str_ops) Q s.
Proof.
  intros Hnz HQ. apply swp_in_skip. intros s' R' I'. apply HQ; [|exact I']. rewrite R'. apply rem_head_nz. exact Hnz.
Qed.

(* pure look-ups: the state is untouched (any error predicate) *)
Lemma swp_next_is E p (Q : bool -> sst -> Prop) s : Q (p (rnth s 0)) s -> swp E (next_is str_ops p) Q s.
Proof. intros H. unfold next_is. apply swp_bind. apply swp_peek. apply swp_ret. exact H. Qed.

Lemma swp_next_3_are E a b c (Q : bool -> sst -> Prop) s :
  (forall r, (r = true -> rnth s 0 = a /\ rnth s 1 = b /\ rnth s 2 = c) -> Q r s) -> swp E (next_3_are str_ops a b c) Q s.
Proof.
  intros HQ. unfold next_3_are. apply swp_bind, swp_assert_buflen. apply swp_bind, swp_peek.
  apply swp_bind, swp_peekn. apply swp_bind, swp_peekn. apply swp_ret. apply HQ. intros H.
  apply andb_true_iff in H as [H H3]. apply andb_true_iff in H as [H1 H2].
  apply N.eqb_eq in H1, H2, H3. auto.
Qed.
Lemma swp_next_is_document_indicator E (Q : bool -> sst -> Prop) s :
  (forall b, Q b s) -> swp E (next_is_document_indicator str_ops) Q s.
Proof.
  intros H. unfold next_is_document_indicator. apply swp_bind. apply swp_assert_buflen. apply swp_bind. apply swp_peekn.
  dif; [|apply swp_ret; apply H].
  apply swp_bind. apply swp_next_3_are. intros d _. destruct d; [apply swp_ret; apply H|].
  apply swp_next_3_are. intros r _. apply H.
Qed.
(* next_is_document_start and next_is_document_end: three times the character [c], then a blank, a break or NUL *)
Lemma swp_document_marker E site c (Q : bool -> sst -> Prop) s :
  (forall r, (r = true -> rnth s 0 = c /\ rnth s 1 = c /\ rnth s 2 = c) -> Q r s) ->
  swp E (bind (assert_buflen str_ops 4 site) (fun _ => bind (next_3_are str_ops c c c) (fun d =>
           if d then bind (peekn str_ops 3) (fun c3 => ret (is_blank_or_breakz c3)) else ret false))) Q s.
Proof.
  intros HQ. apply swp_bind, swp_assert_buflen. apply swp_bind, swp_next_3_are.
  intros d Hd. destruct d.
  - apply swp_bind, swp_peekn. apply swp_ret. apply HQ. intros _. apply Hd. reflexivity.
  - apply swp_ret. apply HQ. discriminate.
Qed.

Section PosPrim.
Variable orig : list chr.
Hypothesis no_nul : Forall (fun c => c <> 0%N) orig.
Notation pwp := (swp (true_mark orig)).
Notation MarkAt := (MarkAt orig).
Notation MarkOK := (MarkOK orig).

(* the contracts' postconditions (SCANPOS.md) *)
Definition ppost (s : sst) : token -> sst -> Prop := fun t s' => MarkOK s' /\ true_tok orig t /\ pkeeps s s'.
Definition upost (s : sst) {A} : A -> sst -> Prop := fun _ s' => MarkOK s' /\ pkeeps s s'.

Lemma pwp_ppost (m : SM token) s :
  ScanFrame.Fr m -> pwp m (fun t s' => MarkOK s' /\ true_tok orig t) s -> pwp m (ppost s) s.
Proof using.
  intros HF H. apply (swp_pkeeps _ m _ s HF). eapply swp_mono; [exact H|]. intros t s' [M' T'] K'. split; [exact M'|split; [exact T'|exact K']].
Qed.
Lemma pwp_upost {A} (m : SM A) s : ScanFrame.Fr m -> pwp m (fun _ s' => MarkOK s') s -> pwp m (upost s) s.
Proof using.
  intros HF H. apply (swp_pkeeps _ m _ s HF). eapply swp_mono; [exact H|]. intros a s' M' K'. split; assumption.
Qed.

(* (a) general derived rules *)

(* the invariant only looks at the remaining input and the mark *)
Lemma markat_ext pre s s' : MarkAt pre s -> rem s' = rem s -> sc_mark s' = sc_mark s -> MarkAt pre s'.
Proof using no_nul. intros (E & I & P) Hr Hm. unfold ScanPos.MarkAt. rewrite Hr, Hm. repeat split; assumption. Qed.

Lemma markat_inonly pre s s' : MarkAt pre s -> rem s' = rem s -> inonly s s' -> MarkAt pre s'.
Proof using no_nul. intros HM Hr HI. apply (markat_ext pre s s' HM Hr). apply inonly_mark. exact HI. Qed.

Lemma markok_ext s s' : MarkOK s -> rem s' = rem s -> sc_mark s' = sc_mark s -> MarkOK s'.
Proof using no_nul. intros [pre HM] Hr Hm. exists pre. eapply markat_ext; eauto. Qed.

(* advancing over k non-break characters at once *)
Lemma markat_step_many pre w r s s' :
  MarkAt pre s -> rem s = w ++ r -> Forall (fun c => is_break c = false) w ->
  rem s' = r -> sc_mark s' = adv (N.of_nat (length w)) (sc_mark s) -> MarkAt (pre ++ w) s'.
Proof using no_nul.
  revert pre s. induction w as [|c w IH]; intros pre s HM Hr HF Hr' Hm.
  - rewrite app_nil_r. cbn [app length N.of_nat] in Hr, Hm. rewrite adv_0 in Hm.
    apply (markat_ext pre s s' HM); [congruence|exact Hm].
  - inversion HF as [|c0 w0 Hc HF']; subst c0 w0.
    pose (s1 := set_mark (adv 1 (sc_mark s)) (set_in {| si_chars := w ++ r; si_look := 0 |} s)).
    assert (M1 : MarkAt (pre ++ [c]) s1).
    { eapply markat_step_plain; [exact HM|exact Hr|exact Hc|reflexivity|reflexivity]. }
    replace (pre ++ c :: w) with ((pre ++ [c]) ++ w) by (rewrite <- app_assoc; reflexivity).
    apply (IH (pre ++ [c]) s1); [exact M1|reflexivity|exact HF'|exact Hr'|].
    rewrite Hm. change (sc_mark s1) with (adv 1 (sc_mark s)). rewrite adv_adv. f_equal. cbn [length]. lia.
Qed.

(* [adv_mark k] after an input-level bulk skip of the k non-break characters [w]: the mark [s] still carries is
   the one of the state [s0] before the skip *)
Lemma pwp_adv_mark_over pre w (Q : unit -> sst -> Prop) s0 s :
  MarkAt pre s0 -> rem s0 = w ++ rem s -> sc_mark s = sc_mark s0 -> Forall (fun c => is_break c = false) w ->
  (forall s', MarkAt (pre ++ w) s' -> rem s' = rem s -> pkeeps s s' -> Q tt s') ->
  pwp (adv_mark (N.of_nat (length w))) Q s.
Proof using no_nul.
  intros HM Hr Hm HF HQ. unfold adv_mark. apply swp_modify. apply HQ.
  - eapply markat_step_many; [exact HM|exact Hr|exact HF|reflexivity|].
    transitivity (adv (N.of_nat (length w)) (sc_mark s)); [reflexivity|rewrite Hm; reflexivity].
  - reflexivity.
  - repeat split.
Qed.

(* lookahead does not disturb the invariant *)
Lemma pwp_look n pre (Q : unit -> sst -> Prop) s :
  MarkAt pre s -> (forall s', MarkAt pre s' -> rem s' = rem s -> inonly s s' -> Q tt s') -> pwp (look str_ops n) Q s.
Proof using no_nul.
  intros HM HQ. apply swp_look. intros s' R' I'. apply HQ; [|exact R'|exact I']. eapply markat_inonly; eauto.
Qed.
Lemma pwp_look_ch pre (Q : chr -> sst -> Prop) s :
  MarkAt pre s -> (forall s', MarkAt pre s' -> rem s' = rem s -> inonly s s' -> Q (rnth s' 0) s') -> pwp (look_ch str_ops) Q s.
Proof using no_nul.
  intros HM HQ. apply swp_look_ch. intros s' R' I'. apply HQ; [|exact R'|exact I']. eapply markat_inonly; eauto.
Qed.
(* [peek] / [peekn] do not change the state at all: [swp_peek], [swp_peekn] of ScanPos.v are already the rules *)
Lemma pwp_peek pre (Q : chr -> sst -> Prop) s : MarkAt pre s -> (MarkAt pre s -> Q (rnth s 0) s) -> pwp (SPrim.peek str_ops) Q s.
Proof using no_nul. intros HM HQ. apply swp_peek. apply HQ. exact HM. Qed.
Lemma pwp_peekn n pre (Q : chr -> sst -> Prop) s : MarkAt pre s -> (MarkAt pre s -> Q (rnth s n) s) -> pwp (peekn str_ops n) Q s.
Proof using no_nul. intros HM HQ. apply swp_peekn. apply HQ. exact HM. Qed.

(* skip_blank / skip_non_blank on a character known (from its value) not to be a break nor NUL *)
Lemma pwp_skip_plain_z (k : SM unit) pre (Q : unit -> sst -> Prop) s :
  (k = skip_blank str_ops \/ k = skip_non_blank str_ops) ->
  MarkAt pre s -> is_breakz (rnth s 0) = false ->
  (forall s', MarkAt (pre ++ [rnth s 0]) s' -> rem s = rnth s 0 :: rem s' -> pkeeps s s' -> Q tt s') -> pwp k Q s.
Proof using no_nul.
  intros Hk HM Hz HQ. destruct (breakz_false _ Hz) as [Hb Hnz].
  eapply (pwp_skip_plain orig k pre (rnth s 0) (tl (rem s))); [exact Hk|exact HM|apply rem_head_nz; exact Hnz|exact Hb|].
  intros s' M' R' K'. apply HQ; [exact M'| |exact K']. rewrite R'. apply rem_head_nz. exact Hnz.
Qed.

(* skip_n_non_blank over n characters that exist and are not breaks *)
Lemma pwp_skip_n_non_blank n pre w r (Q : unit -> sst -> Prop) s :
  MarkAt pre s -> rem s = w ++ r -> length w = n -> Forall (fun c => is_break c = false) w ->
  (forall s', MarkAt (pre ++ w) s' -> rem s' = r -> pkeeps s s' -> Q tt s') ->
  pwp (skip_n_non_blank str_ops n) Q s.
Proof using no_nul.
  intros HM Hr Hl HF HQ. unfold skip_n_non_blank.
  apply swp_bind. apply swp_in_skip_n. intros s1 R1 I1.
  apply swp_bind. unfold adv_mark. apply swp_modify. apply swp_modify.
  destruct (in_keeps _ _ I1) as [K1 M1].
  assert (R1' : rem s1 = r).
  { rewrite R1, Hr, <- Hl. rewrite skipn_app, skipn_all, Nat.sub_diag. reflexivity. }
  apply HQ.
  - eapply markat_step_many; [exact HM|exact Hr|exact HF|exact R1'|].
    transitivity (adv (N.of_nat n) (sc_mark s1)); [reflexivity|rewrite Hl, M1; reflexivity].
  - exact R1'.
  - destruct K1 as (A & B & C). repeat split; assumption.
Qed.

Lemma pwp_skip_n_non_blank_len n pre (Q : unit -> sst -> Prop) s :
  MarkAt pre s -> n <= length (rem s) -> (forall i, i < n -> is_break (rnth s i) = false) ->
  (forall s', MarkAt (pre ++ firstn n (rem s)) s' -> rem s' = skipn n (rem s) -> pkeeps s s' -> Q tt s') ->
  pwp (skip_n_non_blank str_ops n) Q s.
Proof using no_nul.
  intros HM Hn Hb HQ.
  apply (pwp_skip_n_non_blank n pre (firstn n (rem s)) (skipn n (rem s))); [exact HM| | | |exact HQ].
  - symmetry. apply firstn_skipn.
  - apply firstn_length_le. exact Hn.
  - apply firstn_nonbreak; [exact Hn|exact Hb].
Qed.

(* the usual call site: the n characters have just been peeked and none is a break or NUL *)
Lemma pwp_skip_n_non_blank_z n pre (Q : unit -> sst -> Prop) s :
  MarkAt pre s -> (forall i, i < n -> is_breakz (rnth s i) = false) ->
  (forall s', MarkAt (pre ++ firstn n (rem s)) s' -> rem s' = skipn n (rem s) -> pkeeps s s' -> Q tt s') ->
  pwp (skip_n_non_blank str_ops n) Q s.
Proof using no_nul.
  intros HM Hz HQ. apply (pwp_skip_n_non_blank_len n pre); [exact HM| | |exact HQ].
  - apply not_breakz_prefix. exact Hz.
  - intros i Hi. apply breakz_false_break. apply Hz. exact Hi.
Qed.

(* in_skip_while p: the characters [w] consumed all satisfy p (hence are real and not breaks), the count returned
   is |w|, the next character fails p, the mark has NOT moved (the caller's adv_mark does that: pwp_adv_mark_over) *)
Lemma pwp_in_skip_while F p (Q : N -> sst -> Prop) s :
  (forall c, p c = true -> is_breakz c = false) ->
  (forall w s', rem s = w ++ rem s' -> Forall (fun c => p c = true) w -> Forall (fun c => is_break c = false) w ->
                p (rnth s' 0) = false -> inonly s s' -> Q (N.of_nat (length w)) s') ->
  pwp (in_skip_while str_ops F p) Q s.
Proof using no_nul.
  intros Hp HQ. unfold in_skip_while.
  match goal with |- swp _ (?L F 0%N) _ _ =>
    assert (HL : forall f w s1, rem s = w ++ rem s1 -> Forall (fun c => p c = true) w -> inonly s s1 ->
                                pwp (L f (N.of_nat (length w))) Q s1) end.
  { induction f as [|f IHf]; intros w s1 R1 F1 I1; [exact I|]. lazy beta iota.
    apply swp_bind. apply swp_look_ch. intros s2 R2 I2. fold (inonly s1 s2) in I2.
    destruct (p (rnth s2 0)) eqn:Ep.
    - apply swp_bind. apply swp_in_skip_real; [apply breakz_false_nz, Hp, Ep|]. intros s3 R3 I3.
      rewrite (of_nat_snoc w (rnth s2 0)). apply IHf.
      + rewrite <- app_assoc. cbn [app]. rewrite <- R3, R2. exact R1.
      + apply Forall_app. split; [exact F1|]. constructor; [exact Ep|constructor].
      + ino.
    - apply swp_ret. apply HQ; [rewrite R2; exact R1|exact F1|apply (Forall_pred_nonbreak p); assumption|exact Ep|].
      ino. }
  apply (HL F [] s); [reflexivity|constructor|apply inonly_refl].
Qed.

Lemma pwp_in_skip_while_non_breakz F (Q : N -> sst -> Prop) s :
  (forall w s', rem s = w ++ rem s' -> Forall (fun c => is_breakz c = false) w -> Forall (fun c => is_break c = false) w ->
                is_breakz (rnth s' 0) = true -> inonly s s' -> Q (N.of_nat (length w)) s') ->
  pwp (in_skip_while_non_breakz str_ops F) Q s.
Proof using no_nul.
  intros HQ. unfold in_skip_while_non_breakz. apply pwp_in_skip_while; [exact negb_breakz_not_breakz|].
  intros w s' R Fp Fb Ex I'. apply HQ; [exact R| |exact Fb|apply negb_false_iff; exact Ex|exact I'].
  revert Fp. apply Forall_impl. exact negb_breakz_not_breakz.
Qed.

Lemma pwp_in_skip_while_blank F (Q : N -> sst -> Prop) s :
  (forall w s', rem s = w ++ rem s' -> Forall (fun c => is_blank c = true) w -> Forall (fun c => is_break c = false) w ->
                is_blank (rnth s' 0) = false -> inonly s s' -> Q (N.of_nat (length w)) s') ->
  pwp (in_skip_while_blank str_ops F) Q s.
Proof using no_nul. intros HQ. unfold in_skip_while_blank. apply pwp_in_skip_while; [exact blank_not_breakz|exact HQ]. Qed.

(* in_fetch_while_alpha: same, and the characters are returned (reversed, in front of acc) *)
Lemma pwp_in_fetch_while_alpha F acc (Q : list chr * N -> sst -> Prop) s :
  (forall w s', rem s = w ++ rem s' -> Forall (fun c => is_alpha c = true) w -> Forall (fun c => is_break c = false) w ->
                is_alpha (rnth s' 0) = false -> inonly s s' -> Q (rev w ++ acc, N.of_nat (length w)) s') ->
  pwp (in_fetch_while_alpha str_ops F acc) Q s.
Proof using no_nul.
  intros HQ. unfold in_fetch_while_alpha.
  match goal with |- swp _ (?L F acc 0%N) _ _ =>
    assert (HL : forall f w s1, rem s = w ++ rem s1 -> Forall (fun c => is_alpha c = true) w -> inonly s s1 ->
                                pwp (L f (rev w ++ acc) (N.of_nat (length w))) Q s1) end.
  { induction f as [|f IHf]; intros w s1 R1 F1 I1; [exact I|]. lazy beta iota.
    apply swp_bind. apply swp_look_ch. intros s2 R2 I2. fold (inonly s1 s2) in I2.
    destruct (is_alpha (rnth s2 0)) eqn:Ep.
    - apply swp_bind. apply swp_in_skip_real; [apply breakz_false_nz, alpha_not_breakz, Ep|]. intros s3 R3 I3.
      rewrite (of_nat_snoc w (rnth s2 0)).
      replace (rnth s2 0 :: rev w ++ acc) with (rev (w ++ [rnth s2 0]) ++ acc) by (rewrite rev_app_distr; reflexivity).
      apply IHf.
      + rewrite <- app_assoc. cbn [app]. rewrite <- R3, R2. exact R1.
      + apply Forall_app. split; [exact F1|]. constructor; [exact Ep|constructor].
      + ino.
    - apply swp_ret. apply HQ; [rewrite R2; exact R1|exact F1|apply (Forall_pred_nonbreak is_alpha); [exact alpha_not_breakz|exact F1]|exact Ep|].
      ino. }
  apply (HL F [] s); [reflexivity|constructor|apply inonly_refl].
Qed.

(* in_skip_ws_to_eol (with its nested comment loop): the count grows by the number of characters consumed - blanks,
   '#' and comment characters, none of them a break, all of them real -; the mark has not moved *)
Lemma pwp_in_skip_ws_to_eol F stb tab ws n (Q : N * option (bool * bool) -> sst -> Prop) s :
  (forall w o s', rem s = w ++ rem s' -> Forall (fun c => is_break c = false) w -> inonly s s' ->
                  Q ((n + N.of_nat (length w))%N, o) s') ->
  pwp (in_skip_ws_to_eol str_ops F stb tab ws n) Q s.
Proof using no_nul.
  revert tab ws n s. induction F as [|F IHF]; intros tab ws n s HQ; [exact I|].
  assert (HQ0 : forall o s', rem s = rem s' -> inonly s s' -> Q (n, o) s').
  { intros o s' R' I'. replace n with (n + N.of_nat (@length chr []))%N by (cbn [length]; lia).
    apply HQ; [exact R'|constructor|exact I']. }
  (* one real non-break character [c] consumed, then a callee that adds to the count n + 1 *)
  assert (HQ1 : forall s1 s2, rem s1 = rem s -> inonly s s1 -> is_breakz (rnth s1 0) = false ->
                  rem s1 = rnth s1 0 :: rem s2 -> inonly s1 s2 ->
                  forall w o s', rem s2 = w ++ rem s' -> Forall (fun c => is_break c = false) w -> inonly s2 s' ->
                  Q ((n + 1 + N.of_nat (length w))%N, o) s').
  { intros s1 s2 R1 I1 Z1 R2 I2 w o s' R' F' I'.
    replace (n + 1 + N.of_nat (length w))%N with (n + N.of_nat (length (rnth s1 0 :: w)))%N by (cbn [length]; lia).
    apply HQ.
    - rewrite <- R1, R2, R'. reflexivity.
    - constructor; [apply breakz_false_break; exact Z1|exact F'].
    - ino. }
  cbn [in_skip_ws_to_eol].
  apply swp_bind. apply swp_look_ch. intros s1 R1 I1. fold (inonly s s1) in I1.
  destruct (N.eqb_spec (rnth s1 0) 32) as [E32|N32].
  { assert (Z1 : is_breakz (rnth s1 0) = false) by (rewrite E32; reflexivity).
    apply swp_bind. apply swp_in_skip_real; [apply breakz_false_nz; exact Z1|]. intros s2 R2 I2.
    apply IHF. apply (HQ1 s1 s2); assumption. }
  difE E9.
  { apply andb_true_iff in E9 as [E9 _]. apply N.eqb_eq in E9.
    assert (Z1 : is_breakz (rnth s1 0) = false) by (rewrite E9; reflexivity).
    apply swp_bind. apply swp_in_skip_real; [apply breakz_false_nz; exact Z1|]. intros s2 R2 I2.
    apply IHF. apply (HQ1 s1 s2); assumption. }
  destruct (N.eqb_spec (rnth s1 0) 35) as [E35|N35]; [|apply swp_ret; apply HQ0; [symmetry; exact R1|exact I1]].
  destruct (negb tab && negb ws); [apply swp_ret; apply HQ0; [symmetry; exact R1|exact I1]|].
  assert (Z1 : is_breakz (rnth s1 0) = false) by (rewrite E35; reflexivity).
  apply swp_bind. apply swp_in_skip_real; [apply breakz_false_nz; exact Z1|]. intros s2 R2 I2.
  (* the comment loop: [wc] = comment characters consumed so far; the '#' is counted at the exit *)
  match goal with |- swp _ (?L F n) _ _ =>
    assert (HL : forall f wc s3, rem s2 = wc ++ rem s3 -> Forall (fun c => is_break c = false) wc -> inonly s2 s3 ->
                                 pwp (L f (n + N.of_nat (length wc))%N) Q s3) end.
  { induction f as [|f IHf]; intros wc s3 R3 F3 I3; [exact I|]. lazy beta iota.
    apply swp_bind. apply swp_look_ch. intros s4 R4 I4. fold (inonly s3 s4) in I4.
    destruct (is_breakz (rnth s4 0)) eqn:Z4.
    - apply IHF. intros w o s' R' F' I'.
      replace (n + N.of_nat (length wc) + 1 + N.of_nat (length w))%N
        with (n + 1 + N.of_nat (length (wc ++ w)))%N by (rewrite app_length; lia).
      apply (HQ1 s1 s2 R1 I1 Z1 R2 I2).
      + rewrite R3, <- R4, R', app_assoc. reflexivity.
      + apply Forall_app. split; assumption.
      + ino.
    - apply swp_bind. apply swp_in_skip_real; [apply breakz_false_nz; exact Z4|]. intros s5 R5 I5.
      replace (n + N.of_nat (length wc) + 1)%N with (n + N.of_nat (length (wc ++ [rnth s4 0])))%N
        by (rewrite app_length; cbn [length]; lia).
      apply IHf.
      + rewrite <- app_assoc. cbn [app]. rewrite <- R5, R4. exact R3.
      + apply Forall_app. split; [exact F3|]. constructor; [apply breakz_false_break; exact Z4|constructor].
      + ino. }
  replace n with (n + N.of_nat (@length chr []))%N at 1 by (cbn [length]; lia).
  apply HL; [reflexivity|constructor|apply inonly_refl].
Qed.

(* skip_linebreak: CR LF / LF / lone CR consumed as one unit; anything else: no-op *)
Lemma pwp_skip_linebreak pre (Q : unit -> sst -> Prop) s :
  MarkAt pre s ->
  (is_break (rnth s 0) = false -> Q tt s) ->
  (forall s' b rest, rem s = b ++ rest -> is_break_unit b -> (b = [13%N] -> hd 0%N rest <> 10%N) ->
                     MarkAt (pre ++ b) s' -> rem s' = rest -> pkeeps s s' -> Q tt s') ->
  pwp (skip_linebreak str_ops) Q s.
Proof using no_nul.
  intros HM HQ0 HQ. unfold skip_linebreak, next_2_are.
  apply swp_bind. apply swp_bind. apply swp_assert_buflen. apply swp_bind. apply swp_peek. apply swp_bind. apply swp_peekn.
  apply swp_ret.
  unfold rnth in *. destruct (rem s) as [|c r] eqn:Hr; cbn [nth] in *.
  { change ((0 =? 13)%N && (0 =? 10)%N) with false. cbv iota. apply swp_bind. apply swp_peek.
    unfold rnth. rewrite Hr. cbn [nth]. change (is_break 0%N) with false. cbv iota. apply swp_ret. apply HQ0. reflexivity. }
  destruct (N.eqb_spec c 13) as [->|Hn13].
  - destruct r as [|d r']; cbn [nth].
    + change ((0 =? 10)%N) with false. cbn [andb]. apply swp_bind. apply swp_peek. unfold rnth. rewrite Hr. cbn [nth].
      change (is_break 13%N) with true. cbv iota.
      eapply pwp_skip_nl; [exact HM|exact Hr|right; split; [reflexivity|cbn; discriminate]|].
      intros s' M' R' K'. apply (HQ s' [13%N] []); auto; [right; left; reflexivity|cbn; discriminate].
    + destruct (N.eqb_spec d 10) as [->|Hn10]; cbn [andb].
      * apply swp_bind. eapply (pwp_skip_cr orig pre r'); [exact HM|exact Hr|].
        intros s1 M1 R1 K1. eapply pwp_skip_nl; [exact M1|exact R1|left; reflexivity|].
        intros s2 M2 R2 K2. apply (HQ s2 [13%N; 10%N] r'); auto.
        -- right; right; reflexivity.
        -- discriminate.
        -- rewrite <- app_assoc in M2. exact M2.
        -- eapply pkeeps_trans; eauto.
      * apply swp_bind. apply swp_peek. unfold rnth. rewrite Hr. cbn [nth]. change (is_break 13%N) with true. cbv iota.
        eapply pwp_skip_nl; [exact HM|exact Hr|right; split; [reflexivity|cbn; exact Hn10]|].
        intros s' M' R' K'. apply (HQ s' [13%N] (d :: r')); auto; [right; left; reflexivity].
  - cbn [andb]. apply swp_bind. apply swp_peek. unfold rnth. rewrite Hr. cbn [nth].
    destruct (is_break c) eqn:Hb.
    + assert (Ec : c = 10%N).
      { unfold is_break in Hb. apply orb_true_iff in Hb as [H|H]; apply N.eqb_eq in H; [exact H|contradiction]. }
      subst c. eapply pwp_skip_nl; [exact HM|exact Hr|left; reflexivity|].
      intros s' M' R' K'. apply (HQ s' [10%N] r); auto; [left; reflexivity|discriminate].
    + apply swp_ret. apply HQ0. reflexivity.
Qed.

(* the flag accessors used by this family *)
Lemma pwp_allow_simple_key pre (Q : unit -> sst -> Prop) s :
  MarkAt pre s -> (forall s', MarkAt pre s' -> rem s' = rem s -> pkeeps s s' -> Q tt s') -> pwp (allow_simple_key (I:=strin)) Q s.
Proof using no_nul.
  intros HM HQ. unfold allow_simple_key. apply swp_modify. apply HQ; [|reflexivity|repeat split].
  apply (markat_ext pre s _ HM); reflexivity.
Qed.
Lemma pwp_disallow_simple_key pre (Q : unit -> sst -> Prop) s :
  MarkAt pre s -> (forall s', MarkAt pre s' -> rem s' = rem s -> pkeeps s s' -> Q tt s') -> pwp (disallow_simple_key (I:=strin)) Q s.
Proof using no_nul.
  intros HM HQ. unfold disallow_simple_key. apply swp_modify. apply HQ; [|reflexivity|repeat split].
  apply (markat_ext pre s _ HM); reflexivity.
Qed.

(* (b) the contracts *)
Theorem pos_skip_ws_to_eol : forall F stb s, MarkOK s -> pwp (skip_ws_to_eol str_ops F stb) (upost s) s.
Proof using no_nul.
  intros F stb s [pre HM]. apply pwp_upost; [apply ScanFrame.Fr_skip_ws_to_eol|]. unfold skip_ws_to_eol.
  apply swp_bind. apply pwp_in_skip_ws_to_eol. intros w o s1 R1 F1 I1. cbn [fst snd]. rewrite N.add_0_l.
  apply swp_bind. apply (pwp_adv_mark_over pre w _ s s1); [exact HM|exact R1|apply inonly_mark; exact I1|exact F1|].
  intros s2 M2 _ _. destruct o as [tw|].
  - apply swp_ret. exists (pre ++ w); exact M2.
  - apply swp_bind. unfold mark. apply swp_gets. apply swp_fail. apply markok_true. exists (pre ++ w). exact M2.
Qed.

Theorem pos_skip_to_next_token : forall F s, MarkOK s -> pwp (skip_to_next_token str_ops F) (upost s) s.
Proof using no_nul.
  intros F s HS. apply pwp_upost; [apply ScanFrame.Fr_skip_to_next_token|]. revert s HS.
  induction F as [|F IHF]; intros s [pre HM]; [exact I|].
  cbn [skip_to_next_token].
  apply swp_bind. apply (pwp_look_ch pre); [exact HM|]. intros s1 M1 R1 I1.
  apply swp_bind. apply swp_get. apply swp_bind. unfold is_within_block. apply swp_gets. cbv beta.
  dif.
  { (* a tab in the indentation: skip_ws_to_eol, then a break must follow *)
    apply swp_bind. eapply swp_mono; [apply pos_skip_ws_to_eol; exists pre; exact M1|]. intros tw s2 [M2 _].
    apply swp_bind. apply swp_next_is.
    destruct (is_breakz (rnth s2 0)).
    - apply IHF. exact M2.
    - apply swp_bind. unfold mark. apply swp_gets. apply swp_fail. apply markok_true. exact M2. }
  difE Ebl.
  { (* tab or space *)
    apply swp_bind. apply (pwp_skip_plain_z (skip_blank str_ops) pre); [left; reflexivity|exact M1|apply tab_or_space_not_breakz; exact Ebl|].
    intros s2 M2 _ _. apply IHF. eexists; exact M2. }
  difE Ebr.
  { (* a line break *)
    apply swp_bind. apply (pwp_look 2 pre); [exact M1|]. intros s2 M2 R2 I2.
    apply swp_bind.
    match goal with |- swp _ _ ?P _ => assert (HP : forall s3, MarkOK s3 -> P tt s3) end.
    { intros s3 [pre3 M3]. apply swp_bind. unfold flow_level. apply swp_gets. cbv beta.
      apply swp_bind. destruct (sc_flow_level s3 =? 0)%N.
      + apply (pwp_allow_simple_key pre3); [exact M3|]. intros s4 M4 _ _. apply IHF. eexists; exact M4.
      + apply swp_ret. apply IHF. eexists; exact M3. }
    apply (pwp_skip_linebreak pre); [exact M2| |].
    - intros _. apply HP. eexists; exact M2.
    - intros s3 b rest _ _ _ M3 _ _. apply HP. eexists; exact M3. }
  dif.
  { (* a comment: everything up to the break (or the end) *)
    apply swp_bind. apply pwp_in_skip_while_non_breakz. intros w s2 R2 Fz Fb Ex I2.
    apply swp_bind. apply (pwp_adv_mark_over pre w _ s1 s2); [exact M1|exact R2|apply inonly_mark; exact I2|exact Fb|].
    intros s3 M3 _ _. apply IHF. eexists; exact M3. }
  apply swp_ret. exists pre; exact M1.
Qed.

Theorem pos_skip_yaml_whitespace : forall F s, MarkOK s -> pwp (skip_yaml_whitespace str_ops F) (upost s) s.
Proof using no_nul.
  intros F s HS. apply pwp_upost; [apply ScanFrame.Fr_skip_yaml_whitespace|]. unfold skip_yaml_whitespace.
  generalize true. generalize F at 2. intros f. revert s HS.
  induction f as [|f IHf]; intros s [pre HM] need; [exact I|].
  apply swp_bind. apply (pwp_look_ch pre); [exact HM|]. intros s1 M1 R1 I1.
  destruct (N.eqb_spec (rnth s1 0) 32) as [E32|N32].
  { apply swp_bind. apply (pwp_skip_plain_z (skip_blank str_ops) pre); [left; reflexivity|exact M1|rewrite E32; reflexivity|].
    intros s2 M2 _ _. apply IHf. eexists; exact M2. }
  difE Ebr.
  { apply swp_bind. apply (pwp_look 2 pre); [exact M1|]. intros s2 M2 R2 I2.
    apply swp_bind.
    match goal with |- swp _ _ ?P _ => assert (HP : forall s3, MarkOK s3 -> P tt s3) end.
    { intros s3 [pre3 M3]. apply swp_bind. unfold flow_level. apply swp_gets. cbv beta.
      apply swp_bind. destruct (sc_flow_level s3 =? 0)%N.
      + apply (pwp_allow_simple_key pre3); [exact M3|]. intros s4 M4 _ _. apply IHf. eexists; exact M4.
      + apply swp_ret. apply IHf. eexists; exact M3. }
    apply (pwp_skip_linebreak pre); [exact M2| |].
    - intros _. apply HP. eexists; exact M2.
    - intros s3 b rest _ _ _ M3 _ _. apply HP. eexists; exact M3. }
  destruct (N.eqb_spec (rnth s1 0) 35) as [E35|N35].
  { apply swp_bind. apply pwp_in_skip_while_non_breakz. intros w s2 R2 Fz Fb Ex I2.
    apply swp_bind. apply (pwp_adv_mark_over pre w _ s1 s2); [exact M1|exact R2|apply inonly_mark; exact I2|exact Fb|].
    intros s3 M3 _ _. apply IHf. eexists; exact M3. }
  destruct need.
  - apply swp_bind. unfold mark. apply swp_gets. apply swp_fail. apply markok_true. exists pre. exact M1.
  - apply swp_ret. exists pre; exact M1.
Qed.

End PosPrim.

Print Assumptions pos_skip_ws_to_eol.
Print Assumptions pos_skip_to_next_token.
Print Assumptions pos_skip_yaml_whitespace.
