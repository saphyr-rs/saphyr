From Coq Require Import List NArith Bool Lia.
Import ListNotations.
Require Import Parser SBase SPrim SDir SScalar SFetch Pipe Grammar C02base C02rest C02tail C02run C02anchors.
Open Scope N_scope.

Lemma arun_app n a b : arun n (a ++ b) = match arun n a with Some n' => arun n' b | None => None end.
Proof.
  revert n; induction a as [|e a IH]; intros n; cbn [app arun]; [reflexivity|].
  destruct (aev n e); [apply IH|reflexivity].
Qed.

Lemma init_ainv toks keep : AInv (init_parser toks keep) 0.
Proof. split; [reflexivity|]. intros nm id H. discriminate. Qed.

Lemma parse_all_anchors fuel p se acc n :
  AInv p n -> arun 0 (evs_of (rev acc)) = Some n ->
  exists n', arun 0 (evs_of (fst (parse_all fuel p se acc))) = Some n'.
Proof.
  intros HA Hr. rewrite parse_all_iter.
  set (Q := fun p acc => exists n, AInv p n /\ arun 0 (evs_of (rev acc)) = Some n).
  assert (HQ : forall q l a q', Q q l -> at_end q = false -> run_step se q = inl (a, q') -> Q q' (a :: l)).
  { intros q l [e sp] q' (m & Am & Hm) NE Eq. unfold run_step in Eq.
    pose proof (state_machine_apost m q Am (at_end_false _ NE)) as HP.
    destruct (state_machine q) as [[ev q1]|[|s k]|k]; inversion Eq; subst.
    destruct HP as (m' & He & Am'). exists m'. split; [exact Am'|].
    cbn [rev]. unfold evs_of. rewrite map_app, arun_app. fold (evs_of (rev l)). rewrite Hm.
    cbn [map fst arun]. rewrite He. reflexivity. }
  destruct (iter_inv at_end (run_step se) Q HQ fuel p acc (ex_intro _ n (conj HA Hr))) as (p' & acc' & v & -> & (n' & _ & Hn') & _).
  exists n'. exact Hn'.
Qed.

(* Whole runs, every token list: the anchor ids carried by the events are exactly 1, 2, 3, ... in order of
   appearance (positive, never reused - in particular not within a document), and every alias refers to an id
   already handed out. *)
Theorem parser_run_anchors toks keep se fuel :
  exists n, arun 0 (evs_of (fst (parse_all fuel (init_parser toks keep) se []))) = Some n.
Proof. apply (parse_all_anchors fuel _ se [] 0 (init_ainv toks keep)). reflexivity. Qed.
