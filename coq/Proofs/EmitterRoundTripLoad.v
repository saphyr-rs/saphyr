(* C09 — the loader half of the end-to-end round trip for SIMPLE trees (Proofs/EmitterRoundTripDefs.v): the events the
   layout tree of the block-text node of a simple tree denotes (Spec/TokenGrammar.v), wrapped into one document with an
   explicit start, are loaded by the loader model as exactly one document, the tree's own value [to_yaml doc].
     (a) without anchors and tags the numbering pass is the identity: the events are the flattening of an event tree
         (Spec/BuildDocs.v) with anchor id 0 and no tag everywhere;
     (b) the loader refines the specification on every list of event trees (C07_refinement);
     (c) the specified value of that event tree is to_yaml of the tree: plain untagged scalars go through the resolver
         (C08/C09 scalar theorems), a mapping with pairwise different keys is its entry list in document order (C07). *)
From Coq Require Import List NArith ZArith Bool Arith Lia.
Import ListNotations.
Require Import Parser Resolver CoreSchema Loader LinkedMap BuildDocs SpecMapProofs LoaderProofs.
Require Import Emitter EmitterProofs TokenGrammar FlowText BlockText ScanBlockProofs EmitterRoundTripDefs.

(* (a) the event tree of a block-text node *)
Definition wtree (w : str) : etree := BuildDocs.TScalar w Plain 0%N None.

Fixpoint et (n : bnode) : etree :=
  match n with
  | BW w => wtree w
  | BS _ items => TSeq 0%N None (map et items)
  | BM _ pairs => TMap 0%N None (map (fun p => (wtree (fst p), et (snd p))) pairs)
  | BI items => TSeq 0%N None (map et items)
  end.

Lemma events_items_cons f t r : events_items f (t :: r) = f t ++ events_items f r.
Proof. reflexivity. Qed.
Lemma events_pairs_cons f k v r : events_pairs f ((k, v) :: r) = f k ++ f v ++ events_pairs f r.
Proof. reflexivity. Qed.

Definition NumOK (n : bnode) : Prop :=
  forall e k, number [] e (pre_events (blt n) ++ k) = BuildDocs.events_of (et n) ++ number [] e k.

Lemma number_items items : Forall NumOK items -> forall e k,
  number [] e (flat_map pre_events (map blt items) ++ k)
  = events_items BuildDocs.events_of (map et items) ++ number [] e k.
Proof.
  intros HF. induction HF as [|x r Hx Hr IH]; intros e k; [reflexivity|].
  cbn [map flat_map]. rewrite events_items_cons, <- !app_assoc. rewrite (Hx e). rewrite IH. reflexivity.
Qed.

Lemma number_pairs (pairs : list (str * bnode)) : Forall (fun p => NumOK (snd p)) pairs -> forall e k,
  number [] e (flat_map (ent_pre pre_events) (map (fun p => (true, lword (fst p), (true, blt (snd p)))) pairs) ++ k)
  = events_pairs BuildDocs.events_of (map (fun p => (wtree (fst p), et (snd p))) pairs) ++ number [] e k.
Proof.
  intros HF. induction HF as [|p r Hp Hr IH]; intros e k; [reflexivity|].
  cbn [map flat_map ent_pre]. rewrite events_pairs_cons, <- !app_assoc.
  cbn [lword pre_events no_props pr_anchor pr_tag app number number1 env_step TokenGrammar.reg fst snd tag_ev wtree BuildDocs.events_of].
  rewrite (Hp e). rewrite IH. reflexivity.
Qed.

Lemma number_seq pl items : Forall NumOK items -> NumOK (BS pl items).
Proof.
  intros IH e k. cbn [blt pre_events no_props pr_anchor pr_tag et BuildDocs.events_of].
  rewrite <- !app_comm_cons, <- !app_assoc.
  cbn [number number1 env_step TokenGrammar.reg fst snd tag_ev].
  rewrite (number_items items IH). reflexivity.
Qed.

Lemma number_map pl pairs : Forall (fun p : str * bnode => NumOK (snd p)) pairs -> NumOK (BM pl pairs).
Proof.
  intros IH e k. cbn [blt pre_events no_props pr_anchor pr_tag et BuildDocs.events_of].
  rewrite <- !app_comm_cons, <- !app_assoc.
  cbn [number number1 env_step TokenGrammar.reg fst snd tag_ev].
  rewrite (number_pairs pairs IH). reflexivity.
Qed.

(* an indentless sequence has the events and the event tree of a sequence *)
Lemma number_blt : forall n, NumOK n.
Proof. apply bnode_ind2; [intros w e k; reflexivity|exact number_seq|exact number_map|exact (number_seq None)]. Qed.

(* the events of the layout tree of a block-text node are the flattening of its event tree *)
Theorem blt_events n : TokenGrammar.events_of (blt n) = BuildDocs.events_of (et n).
Proof.
  unfold TokenGrammar.events_of. pose proof (number_blt n env0 []) as H.
  cbn [number] in H. rewrite !app_nil_r in H. exact H.
Qed.

(* one document with an explicit start *)
Lemma wrap_is_stream t : wrap_events true (BuildDocs.events_of t) = stream_of [(true, t)].
Proof.
  unfold wrap_events, stream_of. cbn [events_docs]. rewrite app_nil_r. unfold events_doc. cbn [fst snd].
  rewrite <- !app_comm_cons, <- app_assoc. reflexivity.
Qed.

(* (b) the loader on one anchor-free document *)
Lemma load_one_doc t :
  exists ld, load_events (wrap_events true (BuildDocs.events_of t)) l0 = LOk ld
             /\ rev (l_docs ld) = [fst (build [] t)].
Proof.
  rewrite wrap_is_stream, loader_refines_spec. eexists. split; [reflexivity|].
  cbn [l_docs]. rewrite rev_involutive. cbn [build_docs snd]. destruct (build [] t) as [y m1]. reflexivity.
Qed.

(* (c) the value of the event tree *)
Lemma word_value w : value_of w Plain None = YVal (parse_from_cow w).
Proof. reflexivity. Qed.

Lemma leaf_value k : simple_leaf k = true -> value_of (leaf_text k) Plain None = to_yaml k.
Proof.
  intros H. rewrite word_value. destruct k as [|b|z|t|s|l|l]; cbn [leaf_text to_yaml simple_leaf] in *.
  - reflexivity.
  - destruct b; vm_compute; reflexivity.
  - apply andb_prop in H as [H _]. rewrite (int_text_round_trip z H). reflexivity.
  - reflexivity.
  - apply andb_prop in H as [_ H]. apply negb_true_iff in H. rewrite (plain_resolves_to_string s H). reflexivity.
  - discriminate.
  - discriminate.
Qed.

Lemma build_word k m : simple_leaf k = true -> build m (wtree (leaf_text k)) = (to_yaml k, m).
Proof. intros H. unfold wtree. cbn [build]. rewrite (leaf_value k H). reflexivity. Qed.

Lemma build_items_cons f m t r :
  build_items f m (t :: r) = let '(y, m1) := f m t in let '(ys, m2) := build_items f m1 r in (y :: ys, m2).
Proof. reflexivity. Qed.

Lemma lm_mem_keys k (l : list (yaml * yaml)) : lm_mem yaml_eqb k l = existsb (yaml_eqb k) (map fst l).
Proof. induction l as [|p r IH]; [reflexivity|]. cbn [lm_mem existsb map]. unfold lm_mem in IH. rewrite IH. reflexivity. Qed.

Lemma nodupb_keys (l : list (yaml * yaml)) : lm_nodupb yaml_eqb l = keys_distinct (map fst l).
Proof. induction l as [|p r IH]; [reflexivity|]. cbn [lm_nodupb keys_distinct map]. rewrite lm_mem_keys, IH. reflexivity. Qed.

Definition BuildOK (n : node) : Prop :=
  forall c i m, simple_node n = true -> build m (et (node_of c i n)) = (to_yaml n, m).

Lemma build_simple_items c (l : list node) : Forall BuildOK l -> forallb simple_node l = true -> forall m,
  build_items build m (map et (map (node_of c true) l)) = (map to_yaml l, m).
Proof.
  intros HF. induction HF as [|x r Hx Hr IH]; intros Hs m; [reflexivity|].
  cbn [forallb] in Hs. apply andb_prop in Hs as [Hsx Hsr].
  cbn [map]. rewrite build_items_cons. rewrite (Hx c true m Hsx). rewrite (IH Hsr m). reflexivity.
Qed.

Lemma build_simple_entries c (l : list (node * node)) :
  Forall (fun kv => BuildOK (fst kv) /\ BuildOK (snd kv)) l ->
  forallb (fun kv => simple_key (fst kv) && simple_node (snd kv)) l = true -> forall m,
  build_entries m (map (fun p => (wtree (fst p), et (snd p)))
                       (map (fun kv => (leaf_text (fst kv), node_of c false (snd kv))) l))
  = (map (fun kv => (to_yaml (fst kv), to_yaml (snd kv))) l, m).
Proof.
  intros HF. induction HF as [|kv r Hkv Hr IH]; intros Hs m; [reflexivity|].
  cbn [forallb] in Hs. apply andb_prop in Hs as [Hskv Hsr]. apply andb_prop in Hskv as [Hk Hv].
  unfold simple_key in Hk. apply andb_prop in Hk as [Hk _]. destruct Hkv as [_ Hbv].
  cbn [map build_entries fst snd]. rewrite (build_word (fst kv) m Hk). rewrite (Hbv c false m Hv).
  rewrite (IH Hsr m). reflexivity.
Qed.

Lemma build_simple : forall n, BuildOK n.
Proof.
  intros n. induction n as [|b|z|t|s|l IH|l IH] using node_ind'; intros c i m Hs.
  1-5: exact (build_word _ m Hs).
  - cbn [simple_node] in Hs. apply andb_prop in Hs as [_ Hs].
    cbn [node_of et build to_yaml]. rewrite (build_simple_items c l IH Hs m). reflexivity.
  - cbn [simple_node] in Hs. apply andb_prop in Hs as [Hs Hd]. apply andb_prop in Hs as [_ Hs].
    cbn [node_of et build to_yaml]. rewrite build_pairs_entries. rewrite (build_simple_entries c l IH Hs m).
    cbn [fst snd]. fold (lm_collect yaml_eqb (map (fun kv => (to_yaml (fst kv), to_yaml (snd kv))) l)).
    rewrite distinct_keys_kept_in_order; [reflexivity|].
    rewrite nodupb_keys, map_map. cbn [fst]. exact Hd.
Qed.

(* the statement *)
Theorem load_simple_events : forall c doc, simple_tree doc = true ->
  exists ld, load_events (wrap_events true (TokenGrammar.events_of (blt (node_of c true doc)))) l0 = LOk ld
             /\ rev (l_docs ld) = [to_yaml doc].
Proof.
  intros c doc H. unfold simple_tree in H. apply andb_prop in H as [H _]. apply andb_prop in H as [_ Hs].
  rewrite blt_events. destruct (load_one_doc (et (node_of c true doc))) as (ld & Hl & Hd).
  exists ld. split; [exact Hl|]. rewrite Hd, (build_simple doc c true [] Hs). reflexivity.
Qed.

Lemma simple_tree_value_refl : forall doc, yaml_eqb (to_yaml doc) (to_yaml doc) = true.
Proof. intros doc. apply yaml_eqb_refl. Qed.

Print Assumptions load_simple_events.
Print Assumptions simple_tree_value_refl.
