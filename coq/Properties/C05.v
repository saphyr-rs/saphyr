(* C05 — Block scalars yield exactly the text YAML assigns to them.

   Specification: Spec/BlockScalar.v ([block_value], [content_indent], [render_block], [case_ok]), written from YAML 1.2.2
   chapter 8.1.  Model: Model/SScalar.v ([scan_block_scalar] and its helpers), tied to parser/src/scanner.rs by the
   differential run of vlib/p_c05.py.

   Proved here, for ALL inputs of the stated class, about the scanner model on the string back-end [str_ops]:
     T1  [nls] / chomping arithmetic;
     T2  [scan_block_scalar_content_line] appends exactly the line and stops in front of the break — through the
         buffered-peek loop (non-empty look-ahead) and through the raw fast path (empty look-ahead);
     T3  [skip_spaces_to], [skip_block_scalar_indent] (narrow path and wide path indent >= bufmaxlen - 2) and
         [skip_first_line_indent]: blank lines are counted, min(k, indent) spaces of the next line are consumed;
     T4  [C05_block_scalar_partial]: scan_block_scalar returns [block_value] for
           style        literal and folded
           chomping     strip, clip, keep
           indentation  explicit (1-9, either indicator order) or auto-detected; content indentation 0 (top level)
                        included: no content line at column 0 may look like a document marker, and the first
                        line may not start with a tab
           parent       any scanner state (parent indentation = what unroll_non_block_indents leaves, -1 at top level)
           header       indicators, then white space (blanks, tabs) and an optional comment, then the line break
           lines        ALL line lists of content lines (any extra indentation, whitespace-only content lines, lines
                        that look like YAML, tabs; no break / NUL characters inside) and blank lines (at most
                        `indent` spaces), with at least one content line; auto-detection: the first content line
                        has no extra indentation and is not whitespace-only
           line breaks  LF, CR LF or CR (one style per text; parameter [brk] of [with_breaks]: the text is the rendering
                        of the specification with every line feed replaced)
           end          [C05_block_scalar_partial]: every line terminated by a line break, then a less indented line
                        that does not start with a break, or the end of the input (trailing blank lines are part of
                        the line list), or — content indentation 0 — a document marker line `...` or `---`
                        ([ends_after]);
                        [C05_block_scalar_eof_partial]: the end of the input without a final line feed, in general:
                        right after the last content line (a whitespace-only line of MORE spaces than the indentation
                        is such a line), or inside a last line of 1 <= j <= indentation spaces (fewer spaces than the
                        indentation, or exactly as many) — an empty line, dropped by strip and clip, counted by keep:
                        the value is that of the same lines with a final line feed;
                        [C05_block_scalar_empty_partial]: NO content line at all — blank lines only (or nothing),
                        then the end of the input (with a final line feed, without, or inside a last line of
                        spaces: the end-of-stream path), a line of an enclosing collection, or a document marker
                        `...` / `---` at column 0
                        (the input ending on the header line itself is [block_scalar_header_eof], used by T5)
           back-end     string input
     T5  [C05_case_partial]: T4 restated on the cases of the specification — for EVERY [bcase] with [case_ok] outside
         the leading-tab class, in every break style, from any scanner state at the indicator with the parent
         indentation of the case: the token is (style, [case_value]); all side conditions of T4 are discharged from
         [case_ok] (Proofs/BlockScalarCase.v).
   NOT proved (stated as [C05_full], exercised by the Examples below and by the differential run): the syntactic
   contexts in front of the indicator (that the scanner reaches scan_block_scalar in the state T5 assumes), the buffered
   back-ends.  [C05_full] itself is refuted on
   the faithful model by ONE remaining input class (known_findings_c05.jsonl): a top-level scalar with auto-detected
   indentation whose first line starts with a tab at column 0 is rejected; the witness is a theorem below.  The three
   classes that refuted it before (end of the input inside a last line of spaces under clip and under keep, `---`
   after content at column 0) were repaired in /repo (42046c7, 001a921): they are inside T4 now, and their former
   witnesses are Examples of agreement. *)
From Coq Require Import List NArith ZArith Bool Arith Lia.
Import ListNotations.
Require Import Parser SBase SPrim SDir SScalar SFetch Pipe SBuf Drivers BlockScalar BlockScalarProofs BlockScalarCase.
Require Import FlowText ScalarContext ScalarContextBlock ScalarContext2BlockSib.
Require FlowFold.
Open Scope N_scope.

(* ---- T1 ---- *)
Theorem C05_nls_add : forall a b acc, nls (a + b) acc = nls a (nls b acc).
Proof. exact nls_add. Qed.
Print Assumptions C05_nls_add.

Theorem C05_nls_text : forall n acc, rev (nls n acc) = rev acc ++ lfs (N.to_nat n).
Proof. exact rev_nls. Qed.
Print Assumptions C05_nls_text.

Theorem C05_chomp_tail : forall c (acc : list chr) (tb : nat),
  rev (match to_model c with Keep => nls (N.of_nat tb) | _ => fun a => a end
         (match to_model c with Strip => acc | _ => nls 1 acc end))
  = rev acc ++ match c with CStrip => [] | CClip => [LF] | CKeep => lfs (S tb) end.
Proof. exact chomp_tail. Qed.
Print Assumptions C05_chomp_tail.

(* ---- T2 ---- *)
Theorem C05_content_line : forall brk (txt rest : list chr) F acc s lk m w,
  nobreak txt -> is_breakz (hd0 rest) = true -> (length txt < F)%nat ->
  scan_block_scalar_content_line str_ops F acc (mv s (txt ++ rest) lk m w)
  = Ok (rev txt ++ acc, mv s rest lk (mark_after brk m txt) w).
Proof. exact content_line_spec. Qed.
Print Assumptions C05_content_line.

(* ---- T3 ---- *)
Theorem C05_skip_spaces_to : forall k (rest : list chr) f indent cb s lk m w j,
  hd0 rest <> 32 -> (k < f)%nat -> (cb = true -> lk <> O) ->
  j = Nat.min k (N.to_nat (indent - m_col m)) ->
  skip_spaces_to str_ops f indent cb (mv s (sps k ++ rest) lk m w)
  = Ok (tt, mv s (sps (k - j) ++ rest) lk (adv (N.of_nat j) m) w).
Proof. exact skip_spaces_to_spec. Qed.
Print Assumptions C05_skip_spaces_to.

Theorem C05_block_scalar_indent : forall brk, break_style brk -> forall ks k (rest : list chr) F fuel indent breaks s lk m,
  m_col m = 0 ->
  Forall (fun k => N.of_nat k <= indent) ks ->
  hd0 rest <> 32 ->
  (indent < N.of_nat k \/ is_break (hd0 rest) = false) ->
  (length ks < fuel)%nat ->
  Forall (fun k => (k < F)%nat) (k :: ks) ->
  exists lk', (lk <= lk')%nat /\ lk' <> O /\
  skip_block_scalar_indent str_ops F fuel indent breaks (mv s (blank_lines brk ks ++ sps k ++ rest) lk m true)
  = Ok (breaks + N.of_nat (length ks),
        mv s (sps (k - Nat.min k (N.to_nat indent)) ++ rest) lk'
           (mark_after brk m (blank_lines brk ks ++ sps (Nat.min k (N.to_nat indent)))) true).
Proof. exact skip_block_scalar_indent_spec. Qed.
Print Assumptions C05_block_scalar_indent.

Theorem C05_first_line_indent : forall brk, break_style brk -> forall ks k (rest : list chr) F fuel maxi breaks s lk m,
  m_col m = 0 ->
  hd0 rest <> 32 -> is_break (hd0 rest) = false ->
  (length ks < fuel)%nat -> Forall (fun k => (k < F)%nat) (k :: ks) ->
  exists lk', (lk <= lk')%nat /\ lk' <> O /\
  skip_first_line_indent str_ops F fuel maxi breaks (mv s (blank_lines brk ks ++ sps k ++ rest) lk m true)
  = Ok ((N.max maxi (N.of_nat (maxl ks k)), breaks + N.of_nat (length ks)),
        mv s rest lk' (mark_after brk m (blank_lines brk ks ++ sps k)) true).
Proof. exact skip_first_line_indent_spec. Qed.
Print Assumptions C05_first_line_indent.

(* ---- T4 ---- *)
Theorem C05_block_scalar_partial : forall brk (s : sc strin) F literal c (explicit : option nat) (digit_first : bool) (hc : list chr)
    (lines : list bline) (j : nat) (r' : list chr) (n : nat) pz inds,
  si_chars (sc_in s) = with_breaks brk (render_block n literal c explicit digit_first hc lines (EofRest [])) ++ sps j ++ r' ->
  unroll_nb (sc_indents s) (sc_indent s) = (pz, inds) ->
  header_tail hc -> (2 * length hc + 2 < F)%nat ->
  Forall (line_ok F n) lines -> Forall (line_col0 n) lines -> (n = O -> first_char n lines <> 9) ->
  (S (length lines) < F)%nat -> has_text lines = true ->
  ends_after n j r' -> hd0 r' <> 32 -> is_break (hd0 r') = false -> (r' = [] -> j = O) -> (r' <> [] -> hd0 r' <> 0) ->
  match explicit with
  | Some d => (1 <= d <= 9)%nat /\ N.of_nat n = (if (0 <=? pz)%Z then Z.to_N (pz + Z.of_N (N.of_nat d)) else N.of_nat d)
  | None => Z.to_N (pz + 1) <= N.of_nat n /\ exists txt, first_text lines = Some (O, txt) /\ txt <> []
  end ->
  exists sp s', scan_block_scalar str_ops F literal s
                = Ok ((sp, TScalar (if literal then Literal else Folded) (block_value literal c lines)), s')
                /\ si_chars (sc_in s') = r'.
Proof. exact block_scalar_lines_k. Qed.
Print Assumptions C05_block_scalar_partial.

Theorem C05_block_scalar_eof_partial : forall brk (s : sc strin) F literal c (explicit : option nat) (digit_first : bool) (hc : list chr)
    (lines : list bline) (n : nat) pz inds,
  si_chars (sc_in s) = with_breaks brk (render_block n literal c explicit digit_first hc lines EofNone) ->
  unroll_nb (sc_indents s) (sc_indent s) = (pz, inds) ->
  header_tail hc -> (2 * length hc + 2 < F)%nat ->
  Forall (line_ok F n) lines -> Forall (line_col0 n) lines -> (n = O -> first_char n lines <> 9) ->
  (S (length lines) < F)%nat -> has_text lines = true ->
  last_line_nonempty lines ->
  match explicit with
  | Some d => (1 <= d <= 9)%nat /\ N.of_nat n = (if (0 <=? pz)%Z then Z.to_N (pz + Z.of_N (N.of_nat d)) else N.of_nat d)
  | None => Z.to_N (pz + 1) <= N.of_nat n /\ exists txt, first_text lines = Some (O, txt) /\ txt <> []
  end ->
  exists sp s', scan_block_scalar str_ops F literal s
                = Ok ((sp, TScalar (if literal then Literal else Folded) (block_value literal c lines)), s')
                /\ si_chars (sc_in s') = [].
Proof. exact block_scalar_lines_eof_k. Qed.
Print Assumptions C05_block_scalar_eof_partial.

Theorem C05_block_scalar_empty_partial : forall brk (s : sc strin) F literal c (explicit : option nat) (digit_first : bool)
    (hc : list chr) (ks : list nat) (j : nat) (r' : list chr) pz inds,
  si_chars (sc_in s) = header literal c explicit digit_first ++ hc ++ kbrk brk ++ blank_lines (kbrk brk) ks ++ sps j ++ r' ->
  unroll_nb (sc_indents s) (sc_indent s) = (pz, inds) ->
  header_tail hc -> (2 * length hc + 2 < F)%nat ->
  Forall (fun k => (k < F)%nat) (j :: ks) -> (S (length ks) < F)%nat ->
  hd0 r' <> 32 -> is_break (hd0 r') = false -> hd0 (blank_lines (kbrk brk) ks ++ sps j ++ r') <> 9 ->
  (* the end of the input, a line that belongs to an enclosing collection, or a document marker at column 0 *)
  (r' = [] \/ (hd0 r' <> 0 /\ (Z.of_nat j <= pz)%Z) \/ (j = O /\ doc_ind_b r' = true)) ->
  match explicit with
  | Some d => (1 <= d <= 9)%nat /\
              let n := if (0 <=? pz)%Z then Z.to_N (pz + Z.of_N (N.of_nat d)) else N.of_nat d in
              Forall (fun k => N.of_nat k <= n) (j :: ks)
  | None => True
  end ->
  exists sp s', scan_block_scalar str_ops F literal s
                = Ok ((sp, TScalar (if literal then Literal else Folded) (block_value literal c (empty_lines ks j r'))), s')
                /\ si_chars (sc_in s') = r'.
Proof. exact block_scalar_empty_k. Qed.
Print Assumptions C05_block_scalar_empty_partial.

From Coq Require Import String.

Ltac lines_ok := repeat (apply Forall_cons || apply Forall_nil); unfold line_ok, line_col0, nobreak; cbn;
  repeat split; try discriminate; try (right; discriminate); try (left; discriminate); try lia; try congruence; repeat constructor.

(* the hypotheses of T4 are satisfiable, and the conclusion is not vacuous: "|-\n  x\n\n   y\n \nz" at top level *)
Example C05_block_scalar_partial_instance :
  exists sp s', scan_block_scalar str_ops 40 true (init_sc {| si_chars := L "|-/  x//   y/ /z"; si_look := 0 |})
                = Ok ((sp, TScalar Literal (L "x// y")), s') /\ si_chars (sc_in s') = L "z".
Proof.
  apply (block_scalar_lines_k 0 _ 40 true CStrip None false [] [Text 0 (L "x"); Blank 0; Text 1 (L "y"); Blank 1] O (L "z") 2 (-1)%Z []).
  - reflexivity.
  - reflexivity.
  - apply ht_white. constructor.
  - cbn. lia.
  - lines_ok.
  - lines_ok.
  - discriminate.
  - cbn. lia.
  - reflexivity.
  - left. lia.
  - discriminate.
  - reflexivity.
  - discriminate.
  - discriminate.
  - split; [cbn; discriminate|]. exists (L "x"). split; [reflexivity|discriminate].
Qed.
Example C05_block_scalar_partial_instance_folded :   (* with a header comment *)
  exists sp s', scan_block_scalar str_ops 60 false (init_sc {| si_chars := L ">2+ # c/  x/  y//   z/  w/ /k: v"; si_look := 0 |})
                = Ok ((sp, TScalar Folded (L "x y// z/w//")), s') /\ si_chars (sc_in s') = L "k: v".
Proof.
  apply (block_scalar_lines_k 0 _ 60 false CKeep (Some 2%nat) true (L " # c")
           [Text 0 (L "x"); Text 0 (L "y"); Blank 0; Text 1 (L "z"); Text 0 (L "w"); Blank 1] O (L "k: v") 2 (-1)%Z []).
  - reflexivity.
  - reflexivity.
  - apply (ht_comment [32] (L " c")); [repeat constructor|discriminate|repeat constructor].
  - cbn. lia.
  - lines_ok.
  - lines_ok.
  - discriminate.
  - cbn. lia.
  - reflexivity.
  - left. lia.
  - discriminate.
  - reflexivity.
  - discriminate.
  - discriminate.
  - split; [lia|reflexivity].
Qed.
(* content at column 0 of a top-level scalar, ended by a document-end marker; by a document-start marker (the class
   repaired by 001a921); and by the end of the input *)
Example C05_block_scalar_partial_instance_column0 :
  exists sp s', scan_block_scalar str_ops 40 false (init_sc {| si_chars := L ">/a/b/ c//... # end/"; si_look := 0 |})
                = Ok ((sp, TScalar Folded (L "a b/ c/")), s') /\ si_chars (sc_in s') = L "... # end/".
Proof.
  apply (block_scalar_lines_k 0 _ 40 false CClip None false [] [Text 0 (L "a"); Text 0 (L "b"); Text 1 (L "c"); Blank 0]
           O (L "... # end/") O (-1)%Z []).
  - reflexivity.
  - reflexivity.
  - apply ht_white. constructor.
  - cbn. lia.
  - lines_ok.
  - lines_ok.
  - discriminate.
  - cbn. lia.
  - reflexivity.
  - right. right. repeat split.
  - discriminate.
  - reflexivity.
  - discriminate.
  - discriminate.
  - split; [cbn; lia|]. exists (L "a"). split; [reflexivity|discriminate].
Qed.
Example C05_block_scalar_partial_instance_document_start :   (* "|\na\n---\nb\n": the scalar is "a\n", `---` is left *)
  exists sp s', scan_block_scalar str_ops 40 true (init_sc {| si_chars := L "|/a/---/b/"; si_look := 0 |})
                = Ok ((sp, TScalar Literal (L "a/")), s') /\ si_chars (sc_in s') = L "---/b/".
Proof.
  apply (block_scalar_lines_k 0 _ 40 true CClip None false [] [Text 0 (L "a")] O (L "---/b/") O (-1)%Z []).
  - reflexivity.
  - reflexivity.
  - apply ht_white. constructor.
  - cbn. lia.
  - lines_ok.
  - lines_ok.
  - discriminate.
  - cbn. lia.
  - reflexivity.
  - right. right. repeat split.
  - discriminate.
  - reflexivity.
  - discriminate.
  - discriminate.
  - split; [cbn; lia|]. exists (L "a"). split; [reflexivity|discriminate].
Qed.
Example C05_block_scalar_eof_partial_instance :
  exists sp s', scan_block_scalar str_ops 40 true (init_sc {| si_chars := L "|+/x/ y"; si_look := 0 |})
                = Ok ((sp, TScalar Literal (L "x/ y/")), s') /\ si_chars (sc_in s') = [].
Proof.
  apply (block_scalar_lines_eof_k 0 _ 40 true CKeep None false [] [Text 0 (L "x"); Text 1 (L "y")] O (-1)%Z []).
  - reflexivity.
  - reflexivity.
  - apply ht_white. constructor.
  - cbn. lia.
  - lines_ok.
  - lines_ok.
  - discriminate.
  - cbn. lia.
  - reflexivity.
  - exact I.
  - split; [cbn; lia|]. exists (L "x"). split; [reflexivity|discriminate].
Qed.

(* The end of the input inside a last line of spaces, after content, as a mapping value (parent indentation 0,
   content indentation 2): fewer spaces than the indentation, exactly as many (both: an empty line — clip gives one
   final line feed, keep two), and more (a content line of one space).  The first two were wrong before 42046c7
   (keep dropped the short line, clip doubled the line feed after the exact one). *)
Definition in_map_value (t : list N) : sc strin :=
  set_indent 0%Z [{| in_indent := (-1)%Z; in_needs_block_end := true |}] (init_sc {| si_chars := t; si_look := 0 |}).
Definition scans_to (lit : bool) (t v : list N) : Prop :=
  exists sp s', scan_block_scalar str_ops 40 lit (in_map_value t) = Ok ((sp, TScalar (if lit then Literal else Folded) v), s')
                /\ si_chars (sc_in s') = [].
Ltac eof_instance lit c lines :=
  unfold scans_to;
  apply (block_scalar_lines_eof_k 0 _ 40 lit c None false [] lines 2 0%Z [{| in_indent := (-1)%Z; in_needs_block_end := true |}]);
  [reflexivity|reflexivity|apply ht_white; constructor|cbn; lia|lines_ok|lines_ok|discriminate|cbn; lia|reflexivity|exact I|
   split; [cbn; lia|exists (L "x"); split; [reflexivity|discriminate]]].
Example C05_eof_fewer_spaces_clip : scans_to true (L "|/  x/ ") (L "x/").
Proof. eof_instance true CClip [Text 0 (L "x"); Blank 1]. Qed.
Example C05_eof_fewer_spaces_keep : scans_to true (L "|+/  x/ ") (L "x//").
Proof. eof_instance true CKeep [Text 0 (L "x"); Blank 1]. Qed.
Example C05_eof_fewer_spaces_strip : scans_to true (L "|-/  x/ ") (L "x").
Proof. eof_instance true CStrip [Text 0 (L "x"); Blank 1]. Qed.
Example C05_eof_exact_spaces_clip : scans_to true (L "|/  x/  ") (L "x/").
Proof. eof_instance true CClip [Text 0 (L "x"); Blank 2]. Qed.
Example C05_eof_exact_spaces_keep : scans_to true (L "|+/  x/  ") (L "x//").
Proof. eof_instance true CKeep [Text 0 (L "x"); Blank 2]. Qed.
Example C05_eof_more_spaces_clip : scans_to true (L "|/  x/   ") (L "x/ /").
Proof. eof_instance true CClip [Text 0 (L "x"); Text 1 []]. Qed.
Example C05_eof_more_spaces_keep : scans_to true (L "|+/  x/   ") (L "x/ /").
Proof. eof_instance true CKeep [Text 0 (L "x"); Text 1 []]. Qed.
Example C05_eof_more_spaces_strip : scans_to true (L "|-/  x/   ") (L "x/ ").
Proof. eof_instance true CStrip [Text 0 (L "x"); Text 1 []]. Qed.
(* folded, after blank lines: "x y" then two empty lines and a last line of one space *)
Example C05_eof_folded_keep : scans_to false (L ">+/  x/  y/// ") (L "x y////").
Proof. eof_instance false CKeep [Text 0 (L "x"); Text 0 (L "y"); Blank 0; Blank 0; Blank 1]. Qed.
Example C05_eof_folded_clip : scans_to false (L ">/  x/  y///  ") (L "x y/").
Proof. eof_instance false CClip [Text 0 (L "x"); Text 0 (L "y"); Blank 0; Blank 0; Blank 2]. Qed.
(* the value does not depend on the final line break: the same lines with a final line feed *)
Example C05_eof_same_with_final_newline :
  block_value true CKeep [Text 0 (L "x"); Blank 1] = L "x//" /\ block_value true CClip [Text 0 (L "x"); Blank 2] = L "x/".
Proof. split; reflexivity. Qed.

(* CR LF and lone CR line breaks: the same theorems, the text of the specification with its line feeds replaced *)
Example C05_crlf_text : with_breaks 1 (L "|-/  x//") = [124; 45; 13; 10; 32; 32; 120; 13; 10; 13; 10].
Proof. reflexivity. Qed.
Example C05_cr_text : with_breaks 2 (L "|-/  x//") = [124; 45; 13; 32; 32; 120; 13; 13].
Proof. reflexivity. Qed.
Example C05_block_scalar_partial_instance_crlf :
  exists sp s', scan_block_scalar str_ops 40 true
                  (init_sc {| si_chars := with_breaks 1 (L "|-/  x//   y/ /") ++ L "z"; si_look := 0 |})
                = Ok ((sp, TScalar Literal (L "x// y")), s') /\ si_chars (sc_in s') = L "z".
Proof.
  apply (block_scalar_lines_k 1 _ 40 true CStrip None false [] [Text 0 (L "x"); Blank 0; Text 1 (L "y"); Blank 1] O (L "z") 2 (-1)%Z []).
  - reflexivity.
  - reflexivity.
  - apply ht_white. constructor.
  - cbn. lia.
  - lines_ok.
  - lines_ok.
  - discriminate.
  - cbn. lia.
  - reflexivity.
  - left. lia.
  - discriminate.
  - reflexivity.
  - discriminate.
  - discriminate.
  - split; [cbn; discriminate|]. exists (L "x"). split; [reflexivity|discriminate].
Qed.
Example C05_block_scalar_partial_instance_cr_folded :   (* lone CRs, a header comment, a sibling key behind *)
  exists sp s', scan_block_scalar str_ops 60 false
                  (init_sc {| si_chars := with_breaks 2 (L ">2+ # c/  x/  y//   z/  w/ /") ++ L "k: v"; si_look := 0 |})
                = Ok ((sp, TScalar Folded (L "x y// z/w//")), s') /\ si_chars (sc_in s') = L "k: v".
Proof.
  apply (block_scalar_lines_k 2 _ 60 false CKeep (Some 2%nat) true (L " # c")
           [Text 0 (L "x"); Text 0 (L "y"); Blank 0; Text 1 (L "z"); Text 0 (L "w"); Blank 1] O (L "k: v") 2 (-1)%Z []).
  - reflexivity.
  - reflexivity.
  - apply (ht_comment [32] (L " c")); [repeat constructor|discriminate|repeat constructor].
  - cbn. lia.
  - lines_ok.
  - lines_ok.
  - discriminate.
  - cbn. lia.
  - reflexivity.
  - left. lia.
  - discriminate.
  - reflexivity.
  - discriminate.
  - discriminate.
  - split; [lia|reflexivity].
Qed.
(* the end of the input inside a last line of one space, CR LF and CR: keep counts the line *)
Example C05_eof_fewer_spaces_keep_crlf :
  exists sp s', scan_block_scalar str_ops 40 true (in_map_value (with_breaks 1 (L "|+/  x/ ")))
                = Ok ((sp, TScalar Literal (L "x//")), s') /\ si_chars (sc_in s') = [].
Proof.
  apply (block_scalar_lines_eof_k 1 _ 40 true CKeep None false [] [Text 0 (L "x"); Blank 1] 2 0%Z
           [{| in_indent := (-1)%Z; in_needs_block_end := true |}]);
  [reflexivity|reflexivity|apply ht_white; constructor|cbn; lia|lines_ok|lines_ok|discriminate|cbn; lia|reflexivity|exact I|
   split; [cbn; lia|exists (L "x"); split; [reflexivity|discriminate]]].
Qed.
Example C05_eof_exact_spaces_clip_cr :
  exists sp s', scan_block_scalar str_ops 40 false (in_map_value (with_breaks 2 (L ">/  x/  y/  ")))
                = Ok ((sp, TScalar Folded (L "x y/")), s') /\ si_chars (sc_in s') = [].
Proof.
  apply (block_scalar_lines_eof_k 2 _ 40 false CClip None false [] [Text 0 (L "x"); Text 0 (L "y"); Blank 2] 2 0%Z
           [{| in_indent := (-1)%Z; in_needs_block_end := true |}]);
  [reflexivity|reflexivity|apply ht_white; constructor|cbn; lia|lines_ok|lines_ok|discriminate|cbn; lia|reflexivity|exact I|
   split; [cbn; lia|exists (L "x"); split; [reflexivity|discriminate]]].
Qed.

Example C05_block_scalar_empty_instance :   (* "- |+\n\n   <eof>" : keep counts the blank line and the line of spaces *)
  exists sp s', scan_block_scalar str_ops 20 true (init_sc {| si_chars := L "|+//   "; si_look := 0 |})
                = Ok ((sp, TScalar Literal (L "//")), s') /\ si_chars (sc_in s') = [].
Proof.
  apply (block_scalar_empty_k 0 _ 20 true CKeep None false [] [O] 3 [] (-1)%Z []).
  - reflexivity.
  - reflexivity.
  - apply ht_white. constructor.
  - cbn. lia.
  - repeat constructor; lia.
  - cbn. lia.
  - discriminate.
  - reflexivity.
  - discriminate.
  - left. reflexivity.
  - exact I.
Qed.
(* a content-less top-level scalar followed by a document marker: ">2+\n\n \n---\n" is "\n\n" *)
Example C05_block_scalar_empty_instance_marker :
  exists sp s', scan_block_scalar str_ops 20 false (init_sc {| si_chars := L ">2+// /---/"; si_look := 0 |})
                = Ok ((sp, TScalar Folded (L "//")), s') /\ si_chars (sc_in s') = L "---/".
Proof.
  apply (block_scalar_empty_k 0 _ 20 false CKeep (Some 2%nat) true [] [O; 1%nat] O (L "---/") (-1)%Z []).
  - reflexivity.
  - reflexivity.
  - apply ht_white. constructor.
  - cbn. lia.
  - repeat constructor; lia.
  - cbn. lia.
  - discriminate.
  - reflexivity.
  - discriminate.
  - right. right. split; reflexivity.
  - split; [lia|]. repeat constructor; cbv; discriminate.
Qed.

(* ---- T5: the same, stated on the cases of the specification ---- *)
(* For EVERY case b of Spec/BlockScalar.v with case_ok b = true (all line lists, both styles, every chomping, explicit
   or auto-detected indentation, header comment, every end shape, LF / CR LF / CR) that is not in the leading-tab
   class: from any scanner state at the indicator whose block indentation is the parent indentation of the case, on
   the string input, with fuel above [case_fuel b], scan_block_scalar returns the token (style, case_value b) and stops
   at the line that follows the scalar.  [case_block b] is [case_text b] without the text in front of the indicator
   ([C05_case_text_split]).  What is left to [C05_full]: the scanner reaching scan_block_scalar in such a state from
   the contexts [ctx], the buffered inputs, and the leading-tab class (where it is false). *)
Theorem C05_case_partial : forall b (s : sc strin) F inds,
  case_ok b = true -> leading_tab_b b = false ->
  si_chars (sc_in s) = case_block b ->
  unroll_nb (sc_indents s) (sc_indent s) = (parent_z (bc_parent b), inds) ->
  (case_fuel b < F)%nat ->
  exists sp s', scan_block_scalar str_ops F (bc_literal b) s
                = Ok ((sp, TScalar (if bc_literal b then Literal else Folded) (case_value b)), s')
                /\ si_chars (sc_in s') = case_rest b.
Proof. exact block_scalar_case. Qed.
Print Assumptions C05_case_partial.

Theorem C05_case_text_split : forall b, case_text b = with_breaks (bc_brk b) (bc_prefix b) ++ case_block b.
Proof. exact case_text_split. Qed.
Print Assumptions C05_case_text_split.

(* a top-level case on the scanner's initial state placed at the indicator *)
Theorem C05_case_top_partial : forall b F,
  case_ok b = true -> leading_tab_b b = false -> bc_parent b = None -> (case_fuel b < F)%nat ->
  exists sp s', scan_block_scalar str_ops F (bc_literal b) (init_sc {| si_chars := case_block b; si_look := 0 |})
                = Ok ((sp, TScalar (if bc_literal b then Literal else Folded) (case_value b)), s')
                /\ si_chars (sc_in s') = case_rest b.
Proof. exact block_scalar_case_top. Qed.
Print Assumptions C05_case_top_partial.

(* instances: the former refutation witness "|\n a\n " and example 8.10 of the specification in CR LF *)
Example C05_case_instance_clip_eof :
  exists sp s', scan_block_scalar str_ops 20 true (init_sc {| si_chars := L "|/ a/ "; si_look := 0 |})
                = Ok ((sp, TScalar Literal (L "a/")), s') /\ si_chars (sc_in s') = [].
Proof. apply (block_scalar_case_top former_witness_clip_eof 20); [reflexivity|reflexivity|reflexivity|cbn; lia]. Qed.
(* the leading-tab witness is in the excluded class, and only there does the scanner differ *)
Example C05_case_tab_excluded : case_ok witness_tab = true /\ leading_tab_b witness_tab = true.
Proof. split; reflexivity. Qed.

(* ---- the complete statement is still false on the faithful model: one class (known finding) ---- *)
Theorem C05_full_refuted : ~ C05_full.
Proof. exact C05_full_is_refuted. Qed.
Print Assumptions C05_full_refuted.

(* "|\n\tx\n": the specification gives "\tx\n" (content indentation 0), the scanner stops with error site 82 *)
Theorem C05_refuted_leading_tab :
  case_ok witness_tab = true /\ case_text witness_tab = [124; 10; 9; 120; 10] /\ case_value witness_tab = [9; 120; 10] /\
  first_block_scalar (fst (scan_str (case_text witness_tab))) = None /\
  (exists m, snd (scan_str (case_text witness_tab)) = SError 82 m).
Proof. exact witness_tab_fails. Qed.
Print Assumptions C05_refuted_leading_tab.

(* the same content one line further down is accepted *)
Example C05_leading_tab_second_line : agrees witness_tab_second_line /\ case_value witness_tab_second_line = [10; 9; 120; 10].
Proof. exact witness_tab_second_line_ok. Qed.

(* the former refutation witnesses (classes repaired by 42046c7 and 001a921) now agree with the specification *)
Example C05_repaired_clip_at_eof :
  agrees former_witness_clip_eof /\ case_text former_witness_clip_eof = L "|/ a/ " /\ case_value former_witness_clip_eof = L "a/".
Proof. exact former_witness_clip_eof_ok. Qed.
Example C05_repaired_keep_at_eof :
  agrees former_witness_keep_eof /\ case_text former_witness_keep_eof = L "k: |+/  a/ " /\ case_value former_witness_keep_eof = L "a//".
Proof. exact former_witness_keep_eof_ok. Qed.
Example C05_repaired_document_start :
  agrees former_witness_doc_start /\ case_text former_witness_doc_start = L "|/a/---/b/" /\ case_value former_witness_doc_start = L "a/".
Proof. exact former_witness_doc_start_ok. Qed.

(* ---- Examples: the model pipeline on the string input and on buffered inputs of capacity 8 and 16 ---- *)
Ltac run := vm_compute; repeat split.
Definition two_lines : list rline := [R 2 "x"; R 2 "y"; R 0 ""].
Definition fold_lines : list rline := [R 2 "x"; R 2 "y"; R 0 ""; R 2 "z"; R 0 ""; R 0 ""].
(* each chomping x literal / folded *)
Example ex_literal_strip : agrees (mkcase true CStrip None (Some O) (L "a: ") [] two_lines EofNewline). Proof. run. Qed.
Example ex_literal_clip : agrees (mkcase true CClip None (Some O) (L "a: ") [] two_lines EofNewline). Proof. run. Qed.
Example ex_literal_keep : agrees (mkcase true CKeep None (Some O) (L "a: ") [] two_lines EofNewline). Proof. run. Qed.
Example ex_literal_keep_value : case_value (mkcase true CKeep None (Some O) (L "a: ") [] two_lines EofNewline) = L "x/y//".
Proof. reflexivity. Qed.
Example ex_folded_strip : agrees (mkcase false CStrip None (Some O) (L "- ") [] fold_lines EofNewline). Proof. run. Qed.
Example ex_folded_clip : agrees (mkcase false CClip None (Some O) (L "- ") [] fold_lines EofNewline). Proof. run. Qed.
Example ex_folded_keep : agrees (mkcase false CKeep None (Some O) (L "- ") [] fold_lines EofNewline). Proof. run. Qed.
Example ex_folded_keep_value : case_value (mkcase false CKeep None (Some O) (L "- ") [] fold_lines EofNewline) = L "x y/z///".
Proof. reflexivity. Qed.
(* more-indented lines in folded style (YAML 1.2.2 example 8.10), at top level, followed by a trailing comment *)
Definition ex810 : list rline :=
  [R 0 ""; R 1 "folded"; R 1 "line"; R 0 ""; R 1 "next"; R 1 "line"; R 3 "* bullet"; R 0 ""; R 3 "* list"; R 3 "* lines";
   R 0 ""; R 1 "last"; R 1 "line"; R 0 ""].
Example ex_folded_more_indented : agrees (mkcase false CClip None None [] [] ex810 (EofRest (L "# Comment/"))). Proof. run. Qed.
Example ex_folded_more_indented_value :
  case_value (mkcase false CClip None None [] [] ex810 (EofRest (L "# Comment/")))
  = L "/folded line/next line/  * bullet//  * list/  * lines//last line/".
Proof. reflexivity. Qed.
(* auto-detected indentation with leading blank lines *)
Example ex_auto_leading_blank : agrees (mkcase true CClip None (Some O) (L "- ") [] [R 0 ""; R 2 ""; R 2 "x"; R 3 "y"] EofNewline).
Proof. run. Qed.
(* explicit indentation, the first line starts with more spaces *)
Example ex_explicit_leading_spaces : agrees (mkcase true CClip (Some 1%nat) (Some O) (L "- ") [] [R 3 "x"; R 1 "y"] EofNewline).
Proof. run. Qed.
Example ex_explicit_leading_spaces_value :
  case_value (mkcase true CClip (Some 1%nat) (Some O) (L "- ") [] [R 3 "x"; R 1 "y"] EofNewline) = L "  x/y/".
Proof. reflexivity. Qed.
(* the end of the input without a final line break; after blank lines; after a whitespace-only content line *)
Example ex_eof_none_clip : agrees (mkcase true CClip None (Some O) (L "a: ") [] [R 2 "x"] EofNone). Proof. run. Qed.
Example ex_eof_none_keep : agrees (mkcase true CKeep None (Some O) (L "a: ") [] [R 2 "x"; R 2 "y"] EofNone). Proof. run. Qed.
Example ex_eof_none_folded : agrees (mkcase false CClip None None [] [] [R 0 "x"; R 0 "y"] EofNone). Proof. run. Qed.
Example ex_eof_after_blank_lines : agrees (mkcase true CKeep None (Some O) (L "a: ") [] [R 2 "x"; R 0 ""; R 1 ""; R 0 ""] EofNewline).
Proof. run. Qed.
Example ex_eof_after_space_content : agrees (mkcase true CClip None (Some O) (L "foo: ") [] [R 2 "x"; R 3 ""] EofNone). Proof. run. Qed.
(* no content at all (the end-of-stream path, and a document marker after a top-level scalar) *)
Example ex_empty_clip : agrees (mkcase true CClip None (Some O) (L "a: ") [] [] EofNewline). Proof. run. Qed.
Example ex_empty_keep : agrees (mkcase true CKeep None (Some O) (L "- ") [] [R 0 ""; R 3 ""] EofNone). Proof. run. Qed.
Example ex_empty_keep_value : case_value (mkcase true CKeep None (Some O) (L "- ") [] [R 0 ""; R 3 ""] EofNone) = L "//".
Proof. reflexivity. Qed.
Example ex_empty_marker : agrees (mkcase false CStrip (Some 2%nat) None [] [] [] (EofRest (L ".../"))). Proof. run. Qed.
(* header comment, digit and chomping indicators, followed by a sibling key; CR LF *)
Example ex_header_comment : agrees (mkcase false CStrip (Some 2%nat) (Some O) (L "k: ") (L " # c") [R 2 "x"; R 3 "y"] (EofRest (L "z: 1/"))).
Proof. run. Qed.
Example ex_crlf : agrees {| bc_literal := true; bc_chomp := CKeep; bc_explicit := None; bc_digit_first := true;
                            bc_parent := Some O; bc_prefix := L "k: "; bc_hc := []; bc_raw := [R 1 "x"; R 0 ""; R 2 "y"; R 0 ""];
                            bc_eof := EofRest (L "z: 1/"); bc_brk := 1 |}.
Proof. run. Qed.
(* indentation 20: the wide-indent path of skip_block_scalar_indent on the capacity-8 and capacity-16 buffers *)
Definition wide_prefix : list N := L "a:/" ++ spaces 20 ++ L "b: ".
Example ex_wide_literal : agrees (mkcase true CKeep None (Some 20%nat) wide_prefix [] [R 22 "wide"; R 0 ""; R 24 "more"; R 22 "path"; R 21 ""]
                                         (EofRest (spaces 20 ++ L "c: d/"))).
Proof. run. Qed.
Example ex_wide_folded : agrees (mkcase false CClip (Some 3%nat) (Some 20%nat) wide_prefix [] [R 23 "wide"; R 23 "path"; R 30 ""; R 23 "end"] EofNone).
Proof. run. Qed.
(* T5 on example 8.10 of the specification, CR LF breaks, followed by a trailing comment *)
Definition ex810_crlf : bcase :=
  {| bc_literal := false; bc_chomp := CClip; bc_explicit := None; bc_digit_first := false; bc_parent := None;
     bc_prefix := []; bc_hc := []; bc_raw := ex810; bc_eof := EofRest (L "# Comment/"); bc_brk := 1 |}.
Example C05_case_instance_ex810_crlf :
  exists sp s', scan_block_scalar str_ops 60 false (init_sc {| si_chars := case_block ex810_crlf; si_look := 0 |})
                = Ok ((sp, TScalar Folded (L "/folded line/next line/  * bullet//  * list/  * lines//last line/")), s')
                /\ si_chars (sc_in s') = with_breaks 1 (L "# Comment/").
Proof. apply (block_scalar_case_top ex810_crlf 60); [reflexivity|reflexivity|reflexivity|cbn; lia]. Qed.

(* ---- T6: block scalars in DOCUMENT context, text -> tokens -> events (Proofs/ScalarContext.v, ScalarContextBlock.v) ---- *)
(* T5 composed with the scanner skeleton (fetch_next_token dispatch, save_simple_key / the key that may still be pending
   when the input ends, roll_indent / roll_one_col_indent / unroll_indent, Key / BlockMappingStart back-insertion, the token
   queue handed out between the fetches, the end of the input in two BlockEnd batches) and with the parser theorem
   (Proofs/TokenGrammarProofs.v: parse_wrap).  The left side is the specification's own rendering [case_text b], the right
   side the specification's value [case_value b]; for EVERY case b with case_ok b = true outside the leading-tab class, every
   style / chomping / indicator / header comment / line list / break style, whose scalar ENDS THE INPUT (with or without
   a final line break: [ends_input]), in three positions:
     C05_document_top    the document is the scalar                      (bc_prefix = "",      bc_parent = None)
     C05_document_value  value of the pair of a top-level block mapping  (bc_prefix = "key: ", bc_parent = Some 0)
     C05_document_entry  entry of a top-level block sequence             (bc_prefix = "- ",    bc_parent = Some 0)
   run_str is the whole model pipeline on the string input; the event list is complete (PDone). *)
Theorem C05_document_top : forall b,
  case_ok b = true -> leading_tab_b b = false -> bc_parent b = None -> bc_prefix b = [] -> ends_input b = true ->
  map fst (fst (run_str (case_text b)))
  = [EStreamStart; EDocumentStart false; EScalar (case_value b) (if bc_literal b then Literal else Folded) 0 None;
     EDocumentEnd; EStreamEnd]
  /\ snd (run_str (case_text b)) = PDone.
Proof. exact run_block_top. Qed.
Print Assumptions C05_document_top.

Theorem C05_document_value : forall b kw,
  case_ok b = true -> leading_tab_b b = false -> bc_parent b = Some O -> key_ok kw = true -> bc_prefix b = kw ++ [58; 32] ->
  ends_input b = true ->
  map fst (fst (run_str (case_text b)))
  = [EStreamStart; EDocumentStart false; EMappingStart 0 None; EScalar kw Plain 0 None;
     EScalar (case_value b) (if bc_literal b then Literal else Folded) 0 None; EMappingEnd; EDocumentEnd; EStreamEnd]
  /\ snd (run_str (case_text b)) = PDone.
Proof. exact run_block_value. Qed.
Print Assumptions C05_document_value.

Theorem C05_document_entry : forall b,
  case_ok b = true -> leading_tab_b b = false -> bc_parent b = Some O -> bc_prefix b = [45; 32] -> ends_input b = true ->
  map fst (fst (run_str (case_text b)))
  = [EStreamStart; EDocumentStart false; ESequenceStart 0 None;
     EScalar (case_value b) (if bc_literal b then Literal else Folded) 0 None; ESequenceEnd; EDocumentEnd; EStreamEnd]
  /\ snd (run_str (case_text b)) = PDone.
Proof. exact run_block_entry. Qed.
Print Assumptions C05_document_entry.

(* the token level of the same three theorems *)
Theorem C05_document_tokens : forall b,
  case_ok b = true -> leading_tab_b b = false -> ends_input b = true ->
  (bc_parent b = None -> bc_prefix b = [] ->
   exists toks, scan_str (case_text b) = (toks, SEnded) /\
     map snd toks = [TStreamStart; TScalar (if bc_literal b then Literal else Folded) (case_value b); TStreamEnd]) /\
  (forall kw, bc_parent b = Some O -> key_ok kw = true -> bc_prefix b = kw ++ [58; 32] ->
   exists toks, scan_str (case_text b) = (toks, SEnded) /\
     map snd toks = [TStreamStart; TBlockMappingStart; TKey; TScalar Plain kw; TValue;
                     TScalar (if bc_literal b then Literal else Folded) (case_value b); TBlockEnd; TStreamEnd]) /\
  (bc_parent b = Some O -> bc_prefix b = [45; 32] ->
   exists toks, scan_str (case_text b) = (toks, SEnded) /\
     map snd toks = [TStreamStart; TBlockSequenceStart; TBlockEntry;
                     TScalar (if bc_literal b then Literal else Folded) (case_value b); TBlockEnd; TStreamEnd]).
Proof.
  exact (fun b Hok Htab Hend =>
    conj (fun Hp Hpre => scan_block_top b Hok Htab Hp Hpre (ends_input_rest b Hend))
   (conj (fun kw Hp Hk Hpre => scan_block_value b kw Hok Htab Hp Hk Hpre (ends_input_rest b Hend))
         (fun Hp Hpre => scan_block_entry b Hok Htab Hp Hpre (ends_input_rest b Hend)))).
Qed.
Print Assumptions C05_document_tokens.

(* instances, every hypothesis evaluated.  Top level: literal, strip, a blank line, a more-indented line, a trailing line of
   one space, a final line break: "|-\n x\n\n  y\n \n" *)
Definition ctx_top : bcase := mkcase true CStrip None None [] [] [R 1 "x"; R 0 ""; R 2 "y"; R 1 ""] EofNewline.
Example C05_document_top_instance :
  case_text ctx_top = L "|-/ x//  y/ /" /\
  map fst (fst (run_str (L "|-/ x//  y/ /")))
  = [EStreamStart; EDocumentStart false; EScalar (L "x// y") Literal 0 None; EDocumentEnd; EStreamEnd]
  /\ snd (run_str (L "|-/ x//  y/ /")) = PDone.
Proof. split; [reflexivity|]. exact (run_block_top ctx_top eq_refl eq_refl eq_refl eq_refl eq_refl). Qed.
(* content at column 0, folded, keep, no final line break: ">+\na\nb\n\n c" *)
Definition ctx_top0 : bcase := mkcase false CKeep None None [] [] [R 0 "a"; R 0 "b"; R 0 ""; R 1 "c"] EofNone.
Example C05_document_top_instance_column0 :
  case_text ctx_top0 = L ">+/a/b// c" /\
  map fst (fst (run_str (L ">+/a/b// c")))
  = [EStreamStart; EDocumentStart false; EScalar (L "a b// c/") Folded 0 None; EDocumentEnd; EStreamEnd]
  /\ snd (run_str (L ">+/a/b// c")) = PDone.
Proof. split; [reflexivity|]. exact (run_block_top ctx_top0 eq_refl eq_refl eq_refl eq_refl eq_refl). Qed.
(* the header alone: "|" — the key saved for the scalar is still pending when the input ends (the other path of end_unit) *)
Definition ctx_top_empty : bcase := mkcase true CClip None None [] [] [] EofNone.
Example C05_document_top_instance_header_only :
  case_text ctx_top_empty = L "|" /\
  map fst (fst (run_str (L "|"))) = [EStreamStart; EDocumentStart false; EScalar [] Literal 0 None; EDocumentEnd; EStreamEnd]
  /\ snd (run_str (L "|")) = PDone.
Proof. split; [reflexivity|]. exact (run_block_top ctx_top_empty eq_refl eq_refl eq_refl eq_refl eq_refl). Qed.
(* mapping value: folded, keep, explicit indentation, a header comment, CR LF breaks, the input ends inside a last line of one space *)
Definition ctx_value : bcase :=
  {| bc_literal := false; bc_chomp := CKeep; bc_explicit := Some 1%nat; bc_digit_first := true; bc_parent := Some O;
     bc_prefix := L "key: "; bc_hc := L " # c"; bc_raw := [R 1 "x"; R 1 "y"; R 0 ""; R 3 "z"; R 1 "w"; R 1 ""]; bc_eof := EofNone;
     bc_brk := 1 |}.
Example C05_document_value_instance :
  case_text ctx_value = with_breaks 1 (L "key: >1+ # c/ x/ y//   z/ w/ ") /\
  map fst (fst (run_str (with_breaks 1 (L "key: >1+ # c/ x/ y//   z/ w/ "))))
  = [EStreamStart; EDocumentStart false; EMappingStart 0 None; EScalar (L "key") Plain 0 None;
     EScalar (L "x y//  z/w//") Folded 0 None; EMappingEnd; EDocumentEnd; EStreamEnd]
  /\ snd (run_str (with_breaks 1 (L "key: >1+ # c/ x/ y//   z/ w/ "))) = PDone.
Proof. split; [reflexivity|]. exact (run_block_value ctx_value (L "key") eq_refl eq_refl eq_refl eq_refl eq_refl eq_refl). Qed.
(* sequence entry: literal, clip, auto-detected indentation 3 behind a leading empty line, lone CR breaks *)
Definition ctx_entry : bcase :=
  {| bc_literal := true; bc_chomp := CClip; bc_explicit := None; bc_digit_first := false; bc_parent := Some O;
     bc_prefix := L "- "; bc_hc := []; bc_raw := [R 0 ""; R 3 "x"; R 5 "- y: z"; R 3 "# no comment"; R 0 ""]; bc_eof := EofNewline;
     bc_brk := 2 |}.
Example C05_document_entry_instance :
  case_text ctx_entry = with_breaks 2 (L "- |//   x/     - y: z/   # no comment//") /\
  map fst (fst (run_str (with_breaks 2 (L "- |//   x/     - y: z/   # no comment//"))))
  = [EStreamStart; EDocumentStart false; ESequenceStart 0 None; EScalar (L "/x/  - y: z/# no comment/") Literal 0 None;
     ESequenceEnd; EDocumentEnd; EStreamEnd]
  /\ snd (run_str (with_breaks 2 (L "- |//   x/     - y: z/   # no comment//"))) = PDone.
Proof. split; [reflexivity|]. exact (run_block_entry ctx_entry eq_refl eq_refl eq_refl eq_refl eq_refl). Qed.
(* the hypotheses are not vacuous restrictions: a scalar followed by a sibling key does not end the input, and the tab class *)
Example C05_document_ends_input_excludes :
  ends_input (mkcase true CClip None (Some O) (L "a: ") [] [R 2 "x"] (EofRest (L "b: 1/"))) = false /\ leading_tab_b witness_tab = true.
Proof. split; reflexivity. Qed.

(* ---- T7: a FOLLOWER behind the block scalar (Proofs/ScalarContext2Pos.v, ScalarContext2BlockSib.v) ------------------- *)
(* The scalar is the value of the FIRST pair of a two-pair top-level mapping / the FIRST entry of a two-entry top-level
   sequence: bc_eof b = EofRest (sibling line), the sibling line being  kw2 ": " w tail  resp.  "- " w tail  with kw2 a
   one-word plain key (key_ok), w any ONE-LINE plain scalar the specification of C04 allows in block context (sib_wf w =
   FlowFold.plain_layout_wf false 0 w []: inner blanks, '#' and ':' inside words, ...) and tail spaces and line feeds (tail_ok: line
   feeds only when the case is written with LF breaks, because case_text renders every LF of the rest in the break style of
   the case).  For EVERY such case with case_ok outside the leading-tab class whose text holds no NUL (no YAML stream does; the
   position theorem of C12 that locates the scanner behind the scalar is stated for NUL-free inputs) -- both styles, the
   three chompings, explicit / auto-detected indentation, header comment, all line lists, LF / CR LF / CR -- the whole model
   pipeline on the specification's rendering yields the scalar event with the specified value and style, FOLLOWED BY the
   sibling's events.  What is new against T6: behind the scalar the scanner stands at column 0 of a later line (from the
   position invariant MarkOK of Proofs/ScanPos.v, established at the indicator by the skeleton lemmas restated with explicit
   positions), so the simple key saved for the scalar is stale and the token is handed out; the indentation stack left by
   scan_block_scalar (unchanged, or without the one-column raise of "key:") fetches like r3c03's at_tok state; the sibling
   line is then scanned by r3c03's key_at_tok / dash_sp and C04's plain scalar at the end of the input. *)
Theorem C05_document_value_sibling : forall b kw kw2 w tail,
  case_ok b = true -> leading_tab_b b = false -> bc_parent b = Some O -> key_ok kw = true -> bc_prefix b = kw ++ [58; 32] ->
  bc_eof b = EofRest (kw2 ++ 58 :: 32 :: w ++ tail) -> key_ok kw2 = true -> FlowFold.plain_layout_wf false 0 w [] = true ->
  tail_ok (bc_brk b) tail = true -> forallb (fun c => negb (c =? 0)) (case_text b) = true ->
  map fst (fst (run_str (case_text b)))
  = [EStreamStart; EDocumentStart false; EMappingStart 0 None; EScalar kw Plain 0 None;
     EScalar (case_value b) (if bc_literal b then Literal else Folded) 0 None;
     EScalar kw2 Plain 0 None; EScalar w Plain 0 None; EMappingEnd; EDocumentEnd; EStreamEnd]
  /\ snd (run_str (case_text b)) = PDone.
Proof. exact run_block_value_sib. Qed.
Print Assumptions C05_document_value_sibling.

Theorem C05_document_entry_sibling : forall b w tail,
  case_ok b = true -> leading_tab_b b = false -> bc_parent b = Some O -> bc_prefix b = [45; 32] ->
  bc_eof b = EofRest (45 :: 32 :: w ++ tail) -> FlowFold.plain_layout_wf false 0 w [] = true ->
  tail_ok (bc_brk b) tail = true -> forallb (fun c => negb (c =? 0)) (case_text b) = true ->
  map fst (fst (run_str (case_text b)))
  = [EStreamStart; EDocumentStart false; ESequenceStart 0 None;
     EScalar (case_value b) (if bc_literal b then Literal else Folded) 0 None; EScalar w Plain 0 None;
     ESequenceEnd; EDocumentEnd; EStreamEnd]
  /\ snd (run_str (case_text b)) = PDone.
Proof. exact run_block_entry_sib. Qed.
Print Assumptions C05_document_entry_sibling.

(* the token level *)
Theorem C05_document_sibling_tokens : forall b w tail,
  case_ok b = true -> leading_tab_b b = false -> bc_parent b = Some O -> FlowFold.plain_layout_wf false 0 w [] = true ->
  tail_ok (bc_brk b) tail = true -> forallb (fun c => negb (c =? 0)) (case_text b) = true ->
  (forall kw kw2, key_ok kw = true -> bc_prefix b = kw ++ [58; 32] -> bc_eof b = EofRest (kw2 ++ 58 :: 32 :: w ++ tail) -> key_ok kw2 = true ->
   exists toks, scan_str (case_text b) = (toks, SEnded) /\
     map snd toks = [TStreamStart; TBlockMappingStart; TKey; TScalar Plain kw; TValue;
                     TScalar (if bc_literal b then Literal else Folded) (case_value b);
                     TKey; TScalar Plain kw2; TValue; TScalar Plain w; TBlockEnd; TStreamEnd]) /\
  (bc_prefix b = [45; 32] -> bc_eof b = EofRest (45 :: 32 :: w ++ tail) ->
   exists toks, scan_str (case_text b) = (toks, SEnded) /\
     map snd toks = [TStreamStart; TBlockSequenceStart; TBlockEntry;
                     TScalar (if bc_literal b then Literal else Folded) (case_value b); TBlockEntry; TScalar Plain w; TBlockEnd; TStreamEnd]).
Proof.
  exact (fun b w tail Hok Htab Hp Hw Ht Hn =>
    conj (fun kw kw2 Hk Hpre He Hk2 => scan_block_value_sib b kw kw2 w tail Hok Htab Hp Hk Hpre He Hk2 Hw Ht Hn)
         (fun Hpre He => scan_block_entry_sib b w tail Hok Htab Hp Hpre He Hw Ht Hn)).
Qed.
Print Assumptions C05_document_sibling_tokens.

(* instances, every hypothesis evaluated.  "key: |\n  x\n  y\nk2: w\n" *)
Definition sib_value : bcase := mkcase true CClip None (Some O) (L "key: ") [] [R 2 "x"; R 2 "y"] (EofRest (L "k2: w/")).
Example C05_document_value_sibling_instance :
  case_text sib_value = L "key: |/  x/  y/k2: w/" /\
  map fst (fst (run_str (L "key: |/  x/  y/k2: w/")))
  = [EStreamStart; EDocumentStart false; EMappingStart 0 None; EScalar (L "key") Plain 0 None; EScalar (L "x/y/") Literal 0 None;
     EScalar (L "k2") Plain 0 None; EScalar (L "w") Plain 0 None; EMappingEnd; EDocumentEnd; EStreamEnd]
  /\ snd (run_str (L "key: |/  x/  y/k2: w/")) = PDone.
Proof.
  split; [reflexivity|].
  exact (run_block_value_sib sib_value (L "key") (L "k2") (L "w") (L "/") eq_refl eq_refl eq_refl eq_refl eq_refl eq_refl eq_refl eq_refl eq_refl eq_refl).
Qed.
(* folded, keep, explicit indentation, a header comment, CR LF breaks, a more-indented line, trailing empty lines that belong to
   the scalar; the sibling's value has inner blanks and a '#' inside a word, a blank behind it, no final line break *)
Definition sib_value2 : bcase :=
  {| bc_literal := false; bc_chomp := CKeep; bc_explicit := Some 1%nat; bc_digit_first := true; bc_parent := Some O;
     bc_prefix := L "key: "; bc_hc := L " # c"; bc_raw := [R 1 "x"; R 1 "y"; R 0 ""; R 3 "z"; R 1 ""]; bc_eof := EofRest (L "k2: a b#c ");
     bc_brk := 1 |}.
Example C05_document_value_sibling_instance_crlf :
  case_text sib_value2 = with_breaks 1 (L "key: >1+ # c/ x/ y//   z/ /k2: a b#c ") /\
  map fst (fst (run_str (with_breaks 1 (L "key: >1+ # c/ x/ y//   z/ /k2: a b#c "))))
  = [EStreamStart; EDocumentStart false; EMappingStart 0 None; EScalar (L "key") Plain 0 None; EScalar (L "x y//  z//") Folded 0 None;
     EScalar (L "k2") Plain 0 None; EScalar (L "a b#c") Plain 0 None; EMappingEnd; EDocumentEnd; EStreamEnd].
Proof.
  split; [reflexivity|].
  exact (proj1 (run_block_value_sib sib_value2 (L "key") (L "k2") (L "a b#c") (L " ") eq_refl eq_refl eq_refl eq_refl eq_refl eq_refl eq_refl eq_refl eq_refl eq_refl)).
Qed.
(* sequence: literal, strip, auto-detected indentation 3 behind a leading empty line, a YAML look-alike line, a trailing empty
   line; the sibling entry starts with '-' in front of a letter and is followed by two line feeds *)
Definition sib_entry : bcase :=
  {| bc_literal := true; bc_chomp := CStrip; bc_explicit := None; bc_digit_first := false; bc_parent := Some O;
     bc_prefix := L "- "; bc_hc := []; bc_raw := [R 0 ""; R 3 "x"; R 5 "- y: z"; R 0 ""]; bc_eof := EofRest (L "- -w w//");
     bc_brk := 0 |}.
Example C05_document_entry_sibling_instance :
  case_text sib_entry = L "- |-//   x/     - y: z//- -w w//" /\
  map fst (fst (run_str (L "- |-//   x/     - y: z//- -w w//")))
  = [EStreamStart; EDocumentStart false; ESequenceStart 0 None; EScalar (L "/x/  - y: z") Literal 0 None; EScalar (L "-w w") Plain 0 None;
     ESequenceEnd; EDocumentEnd; EStreamEnd]
  /\ snd (run_str (L "- |-//   x/     - y: z//- -w w//")) = PDone.
Proof.
  split; [reflexivity|].
  exact (run_block_entry_sib sib_entry (L "-w w") (L "//") eq_refl eq_refl eq_refl eq_refl eq_refl eq_refl eq_refl eq_refl).
Qed.
(* the side conditions are real restrictions: a line feed in the tail of a CR LF case, " #" (a comment) and ": " in the sibling's
   value, a NUL in the text *)
Example C05_document_sibling_excludes :
  tail_ok 1 (L "/") = false /\ tail_ok 0 (L " //") = true /\ tail_ok 2 (L "  ") = true /\
  FlowFold.plain_layout_wf false 0 (L "a #b") [] = false /\ FlowFold.plain_layout_wf false 0 (L "a: b") [] = false /\
  forallb (fun c => negb (c =? 0)) [107; 58; 32; 124; 10; 32; 0; 10] = false.
Proof. repeat split. Qed.
