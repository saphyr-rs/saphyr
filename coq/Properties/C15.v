(* C15 — Documents in a stream are parsed independently of each other.

   PARSER (token level, all token lists):
     C15_document_end_resets   every DocumentEnd step empties the anchor table and (unless keep_tags) the tag table
     C15_renumbering           raising the anchor id counter only renumbers the events
     C15_tail_simulation       "... StreamEnd" and "... DocumentEnd rest" are treated alike until the first stream ends
     C15_composition           tokens(A) ++ [DocumentEnd] ++ tokens(B) is accepted with events(A) ++ events(B) renumbered
     C15_composition_events    the same on events without spans
     C15_composition_driver    the same for the model's driver Pipe.parse_all
     C15_composition_closed, C15_composition_many   closure form; any number of streams
   SCANNER (character level, all inputs, any input type):
     C15_char_scanners_are_frames      no character-level scanner touches the skeleton
     C15_skeleton_invariant            fetch_next_token keeps the skeleton invariant, in particular
                                       length sc_ifms = sc_flow_level (the state that replaced flow_mapping_started)
     C15_reachable_skeleton, C15_no_flow_state_between_documents
     C15_document_marker_resets        fetch_document_indicator at flow level 0 re-creates the StreamStart skeleton
     C15_marker_token_resets           whenever a step queues a document marker at flow level 0
     C15_marker_then_newline           ... and after the following line break simple keys are allowed again
     C15_stream_start_config           the configuration they are compared with
   SCANNER, TAIL INDEPENDENCE (string input; Proofs/ScanShift*.v):
     C15_scanner_step_shift, C15_scanner_fetch_more_shift, C15_scanner_next_token_shift, C15_scanner_scan_shift
                                       the scanner is equivariant under a shift of the position: two states with
                                       the same remaining text, side 2 [d] further down the stream, deliver the
                                       same tokens shifted by [d] and end the same way
     C15_adjacent_never_in_future      a by-product: sc_adjacent <= current index in every reachable state
     C15_boundary_relation             the marker configuration at a line start IS the state after StreamStart of the
                                       remaining text alone, shifted to the position of the boundary
     C15_tail_independence             from a boundary state the scanner delivers the tokens of the remaining text
                                       alone, StreamStart removed, shifted; same end
     C15_tail_independence_text        the same for the scanner run inside run_str
     C15_parser_position_shift         the parser commutes with the shift of all positions
     C15_accepted_tokens_wf            the tokens of an accepted text are StreamStart ... StreamEnd, StreamEnd only last
     C15_glued_tokens, C15_text_composition   under hypothesis (i): tokens / events of A "...\n" B from those of A and B
     C15_prefix_tokens                 PREFIX STABILITY of the scanner at a "..." line (ScanPrefix*.v): for every NUL-free
                                       text A that ends with a line break, scans to the end and ends outside every flow
                                       collection, and every B, the scanner of A "...\n" B delivers tokens(A) - StreamEnd
                                       (up to the span of an EMPTY block scalar that runs into the end of A: a finding),
                                       then DocumentEnd, and stands in the marker configuration at the line break
     C15_boundary_reached              hence hypothesis (i) for every such A without such a block scalar
     C15_text_composition_total        the text-level composition WITHOUT hypothesis (i)
   Side conditions of the last three (all decidable): [ends_with_break A], [nonul A] (an embedded NUL ends the stream:
   the recorded C12 finding), [closed_flow A] (the scan of A ends at flow level 0; it follows from acceptance:
   C15_closed_flow_of_accepted below), [no_eof_block A] (no token of A is a block scalar
   of line feeds only with a non-empty span: "|\n" at the end of A has the span [indicator, end] alone and the
   empty span [end, end] before a "..." line - same text, different span: see Example eof_block_span_differs).
   WITHOUT [no_eof_block A] AND [closed_flow A] (Proofs/ScanPrefixFinal*.v):
     C15_events_up_to_spans            the parser's events without spans depend on the tokens only up to their spans
     C15_flow_level_exact              a scan that ends properly with a bracket-balanced token stream ends at flow level 0
                                       (any input back-end, any fuel; invariant: flow level = bracket depth of the tokens
                                       delivered or queued, unless a prefix of that stream is beyond repair)
     C15_closed_flow_of_accepted       [closed_flow A] follows from acceptance (C06 + the line above)
     C15_text_composition_spanfree     the text-level composition without [no_eof_block A]: the events are compared
                                       without their spans
     C15_text_composition_final        ends_with_break A, nonul A, run_str A and run_str B accepted  =>  the composition:
                                       property C15 for two streams, as a statement about TEXT
   ANY NUMBER OF TEXTS (Proofs/ScanPrefixMany.v):
     C15_text_composition_many         glue_all_text A0 [A1; ...; An] = A0 "...\n" A1 "...\n" ... An: every part accepted,
                                       every part except possibly the last NUL-free and ending with a line break  =>  the
                                       glued text is accepted with the events [glue_allE] of the parts' events - the
                                       function of the token-level C15_composition_many
     C15_glued_events_explicit         what glue_allE computes on accepted streams: StreamStart, the documents of A0, the
                                       documents of A1 raised by the anchored nodes of A0, those of A2 raised by the
                                       anchored nodes of A0 and A1, ..., StreamEnd
     C15_text_composition_many_explicit   the two together *)
From Coq Require Import List NArith ZArith Bool.
Import ListNotations.
Require Import Parser Grammar SBase SPrim SDir SScalar SFetch Pipe C02run.
Require Import DocReset DocRun DocShift DocSim DocIndep DocIndepRun ScanFrame DocScan.
Require Import ScanShift ScanShiftTop ScanShiftParse ScanShiftDoc.
Require ScanPrefix ScanPrefixTop.
Require Import ScanPrefixDoc.
Require ScanPrefixFinalParse ScanPrefixFinalFlow.
Require Import ScanPrefixFinalDoc ScanPrefixFinalTop ScanPrefixMany.

(* ------------------------------------------------------------------------------------------------ *)
(* parser                                                                                            *)
(* ------------------------------------------------------------------------------------------------ *)
Theorem C15_document_end_resets : forall p ev p',
  document_end p = Parser.Ok (ev, p') ->
  doc_reset p p' /\ (p_state p' = SImplicitDocumentStart \/ p_state p' = SDocumentStart).
Proof. exact document_end_resets. Qed.
Print Assumptions C15_document_end_resets.

Theorem C15_renumbering : forall d p,
  p_anchor_id p <> 0%N -> state_machine (shiftp d p) = shift_res d (state_machine p).
Proof. exact state_machine_shift. Qed.
Print Assumptions C15_renumbering.

Theorem C15_tail_simulation : forall sps spd rest p1 p2 e sp p1',
  R sps spd rest p1 p2 -> DL p1 -> state_machine p1 = Parser.Ok ((e, sp), p1') ->
  (exists sp' p2', state_machine p2 = Parser.Ok ((e, sp'), p2') /\ R sps spd rest p1' p2' /\ DL p1')
  \/ (e = EStreamEnd /\ sp = sps /\ p_state p1 = SImplicitDocumentStart /\ p_state p1' = SEnd
      /\ p_anchor_id p1' = p_anchor_id p1 /\ state_machine p2 = state_machine (restp rest p2))
  \/ (e = EDocumentEnd /\ p_state p1 = SDocumentEnd /\ p_state p1' = SDocumentStart
      /\ p_token p1' = Some (sps, TStreamEnd)
      /\ p_anchor_id p1' = p_anchor_id p1 /\ p_states p1' = p_states p1
      /\ exists sp', state_machine p2 = Parser.Ok ((EDocumentEnd, sp'), pB rest (p_states p2) (p_anchor_id p2))).
Proof. exact sim_step. Qed.
Print Assumptions C15_tail_simulation.

Theorem C15_composition : forall ssA ta sps spd ssB tb seB evA evB,
  snd ssA = TStreamStart -> Forall (fun t => snd t <> TStreamEnd) ta ->
  accepts (ssA :: ta ++ [(sps, TStreamEnd)]) false evA ->
  accepts (ssB :: tb ++ [seB]) false evB ->
  exists pre pre' b n,
    evA = pre ++ [(EStreamEnd, sps)] /\ evB = (EStreamStart, fst ssB) :: b
    /\ arun 0 (DocRun.evs_of evA) = Some n /\ n = count_anchored (DocRun.evs_of evA)
    /\ DocRun.evs_of pre' = DocRun.evs_of pre
    /\ accepts (ssA :: ta ++ (spd, TDocumentEnd) :: tb ++ [seB]) false (pre' ++ map (shift_evsp n) b).
Proof. exact doc_composition. Qed.
Print Assumptions C15_composition.

Theorem C15_composition_events : forall ssA ta sps spd ssB tb seB evA evB,
  snd ssA = TStreamStart -> Forall (fun t => snd t <> TStreamEnd) ta ->
  accepts (ssA :: ta ++ [(sps, TStreamEnd)]) false evA ->
  accepts (ssB :: tb ++ [seB]) false evB ->
  exists evC,
    accepts (ssA :: ta ++ (spd, TDocumentEnd) :: tb ++ [seB]) false evC
    /\ DocRun.evs_of evC
       = removelast (DocRun.evs_of evA)
         ++ map (shift_ev (count_anchored (DocRun.evs_of evA))) (tl (DocRun.evs_of evB)).
Proof. exact doc_composition_events. Qed.
Print Assumptions C15_composition_events.

Theorem C15_composition_driver : forall ssA ta sps spd ssB tb seB fA fB sa sb evA evB,
  snd ssA = TStreamStart -> Forall (fun t => snd t <> TStreamEnd) ta ->
  parse_all fA (init_parser (ssA :: ta ++ [(sps, TStreamEnd)]) false) sa [] = (evA, PDone) ->
  parse_all fB (init_parser (ssB :: tb ++ [seB]) false) sb [] = (evB, PDone) ->
  exists evC,
    (forall fuel sc, (length evA + length evB < fuel)%nat ->
       parse_all fuel (init_parser (ssA :: ta ++ (spd, TDocumentEnd) :: tb ++ [seB]) false) sc [] = (evC, PDone))
    /\ DocRun.evs_of evC
       = removelast (DocRun.evs_of evA)
         ++ map (shift_ev (count_anchored (DocRun.evs_of evA))) (tl (DocRun.evs_of evB)).
Proof. exact doc_composition_parse_all. Qed.
Print Assumptions C15_composition_driver.

(* accepted well-formed streams are closed under gluing with a document-end marker; hence any number of streams *)
Theorem C15_composition_closed : forall spd TA EA TB EB,
  Acc TA EA -> Acc TB EB ->
  exists EC, Acc (glueT spd TA TB) EC /\ DocRun.evs_of EC = glueE (DocRun.evs_of EA) (DocRun.evs_of EB).
Proof. exact Acc_glue. Qed.
Print Assumptions C15_composition_closed.

Theorem C15_composition_many : forall l T0 E0,
  Acc T0 E0 -> Forall (fun x => Acc (snd (fst x)) (snd x)) l ->
  exists EC, Acc (glue_allT T0 l) EC /\ DocRun.evs_of EC = glue_allE (DocRun.evs_of E0) l.
Proof. exact doc_composition_many. Qed.
Print Assumptions C15_composition_many.

(* ------------------------------------------------------------------------------------------------ *)
(* scanner                                                                                           *)
(* ------------------------------------------------------------------------------------------------ *)
Theorem C15_char_scanners_are_frames : forall (I : Type) (ops : InputOps I) (F : nat),
  Fr (skip_to_next_token ops F) /\ Fr (skip_ws_to_eol ops F SkipYes) /\ Fr (skip_yaml_whitespace ops F)
  /\ Fr (scan_directive ops F) /\ Fr (scan_tag ops F) /\ (forall alias, Fr (scan_anchor ops F alias))
  /\ (forall single, Fr (scan_flow_scalar ops F single)) /\ Fr (scan_plain_scalar ops F)
  /\ (forall literal, Fr (scan_block_scalar ops F literal)).
Proof. exact @char_scanners_are_frames. Qed.
Print Assumptions C15_char_scanners_are_frames.

Theorem C15_skeleton_invariant : forall (I : Type) (ops : InputOps I) (F : nat) (s : sc I) (a : unit) (s' : sc I),
  SkInv s -> fetch_next_token ops F s = SBase.Ok (a, s') -> SkInv s'.
Proof. exact @fetch_next_token_SkInv. Qed.
Print Assumptions C15_skeleton_invariant.

Theorem C15_reachable_skeleton : forall (I : Type) (ops : InputOps I) (F : nat) (s : sc I),
  reach ops F s ->
  (if sc_stream_start s then N.of_nat (length (sc_sks s)) = (sc_flow_level s + 1)%N
   else sc_sks s = [] /\ sc_flow_level s = 0%N /\ sc_indents s = [])
  /\ chain (sc_indent s) (sc_indents s)
  /\ N.of_nat (length (sc_ifms s)) = sc_flow_level s.
Proof. exact @reach_SkInv. Qed.
Print Assumptions C15_reachable_skeleton.

Theorem C15_no_flow_state_between_documents : forall (I : Type) (ops : InputOps I) (F : nat) (s : sc I),
  reach ops F s -> sc_flow_level s = 0%N -> sc_ifms s = [].
Proof. exact @reach_no_flow_state_outside_flow. Qed.
Print Assumptions C15_no_flow_state_between_documents.

Theorem C15_document_marker_resets : forall (I : Type) (ops : InputOps I) (t : tok) (s s' : sc I),
  SkInv s -> sc_stream_start s = true -> sc_flow_level s = 0%N ->
  fetch_document_indicator ops t s = SBase.Ok (tt, s') ->
  marker_config s' /\ sc_ska s' = false
  /\ exists toks sp, sc_tokens s' = sc_tokens s ++ toks ++ [(sp, t)] /\ block_ends toks.
Proof. exact @fetch_document_indicator_resets. Qed.
Print Assumptions C15_document_marker_resets.

Theorem C15_marker_token_resets : forall (I : Type) (ops : InputOps I) (F : nat) (s : sc I) (a : unit) (s' : sc I),
  SkInv s -> fetch_next_token ops F s = SBase.Ok (a, s') ->
  sc_flow_level s' = 0%N -> last_tok (fun tk => is_marker tk = true) s' ->
  marker_config s' /\ sc_ska s' = false.
Proof. exact @fetch_next_token_marker. Qed.
Print Assumptions C15_marker_token_resets.

Theorem C15_marker_then_newline : forall (I : Type) (ops : InputOps I) (fuel : nat) (s s' : sc I),
  marker_config s -> skip_to_next_token ops fuel s = SBase.Ok (tt, s') ->
  m_line (sc_mark s') <> m_line (sc_mark s) ->
  marker_config s' /\ sc_ska s' = true.
Proof. exact @marker_then_newline. Qed.
Print Assumptions C15_marker_then_newline.

Theorem C15_stream_start_config : forall (I : Type) (i : I) (s' : sc I),
  fetch_stream_start (init_sc i) = SBase.Ok (tt, s') -> marker_config s' /\ sc_ska s' = true.
Proof. exact @stream_start_config. Qed.
Print Assumptions C15_stream_start_config.

(* ------------------------------------------------------------------------------------------------ *)
(* scanner: tail independence (position-shift equivariance), string input                             *)
(*   [SH d s1 s2] (ScanShift.v): the two states hold the SAME remaining text; every marker of s2 (current mark, spans  *)
(*   of queued tokens, marks of live simple keys) is the marker of s1 with index + sh_i d, line + sh_l d, same     *)
(*   column; sc_tokens_parsed and the token numbers of live simple keys are sh_k d larger; flags, indents, flow   *)
(*   level, sc_ifms are equal; sc_adjacent is related as far as it is observable (inside a flow collection).       *)
(*   [swp d m1 m2 Q s1 s2]: both runs Ok => Q; both Err => same site, marker shifted; Ok against Err impossible;  *)
(*   Panic / OutOfFuel on either side: no claim (C01 excludes them).                                              *)
(* ------------------------------------------------------------------------------------------------ *)
Theorem C15_scanner_step_shift : forall (d : shift) (F1 F2 : nat) (s1 s2 : sc strin), SH d s1 s2 ->
  swp d (fetch_next_token str_ops F1) (fetch_next_token str_ops F2) (bpost d eq) s1 s2.
Proof. exact fetch_next_token_shift. Qed.
Print Assumptions C15_scanner_step_shift.

Theorem C15_scanner_fetch_more_shift : forall (d : shift) (F1 F2 n1 n2 : nat) (s1 s2 : sc strin), SH d s1 s2 ->
  swp d (fetch_more_tokens str_ops F1 n1) (fetch_more_tokens str_ops F2 n2) (bpost d eq) s1 s2.
Proof. exact fetch_more_tokens_shift. Qed.
Print Assumptions C15_scanner_fetch_more_shift.

Theorem C15_scanner_next_token_shift : forall (d : shift) (F1 F2 : nat) (s1 s2 : sc strin), SH d s1 s2 ->
  match next_token str_ops F1 s1, next_token str_ops F2 s2 with
  | SBase.Ok (o1, t1), SBase.Ok (o2, t2) => o2 = option_map (sht d) o1 /\ SH d t1 t2
  | SBase.Err e1 k1, SBase.Err e2 k2 => e1 = e2 /\ k2 = shm d k1
  | SBase.Ok _, SBase.Err _ _ | SBase.Err _ _, SBase.Ok _ => False
  | _, _ => True
  end.
Proof. exact next_token_shift_fun. Qed.
Print Assumptions C15_scanner_next_token_shift.

Theorem C15_scanner_scan_shift : forall (d : shift) (F1 F2 n1 n2 : nat) (s1 s2 : sc strin) (acc : list token),
  SH d s1 s2 ->
  let r1 := scan_all str_ops F1 n1 s1 acc in
  let r2 := scan_all str_ops F2 n2 s2 (map (sht d) acc) in
  ES d (snd r1) (snd r2)
  /\ (proper_end (snd r1) -> proper_end (snd r2) -> fst r2 = map (sht d) (fst r1) /\ snd r2 = she d (snd r1)).
Proof. exact scan_all_shift. Qed.
Print Assumptions C15_scanner_scan_shift.

Theorem C15_adjacent_never_in_future : forall (F : nat) (s : sc strin),
  reach str_ops F s -> (sc_adjacent s <= m_index (sc_mark s))%N.
Proof. exact reach_adj_ok. Qed.
Print Assumptions C15_adjacent_never_in_future.

(* the hypotheses on the skeleton are exactly the conclusions of C15_marker_token_resets + C15_marker_then_newline
   (or of C15_stream_start_config); the others say where the scanner stands: at the start of a line, nothing queued *)
Theorem C15_boundary_relation : forall s : sc strin,
  marker_config s -> sc_ska s = true ->
  m_col (sc_mark s) = 0%N -> (1 <= m_line (sc_mark s))%N -> sc_lws s = true ->
  sc_tokens s = [] -> sc_token_available s = false -> sc_stream_end s = false ->
  (sc_adjacent s <= m_index (sc_mark s))%N -> (1 <= sc_tokens_parsed s)%N -> Nat.eqb (si_look (sc_in s)) 0 = false ->
  SH {| sh_i := m_index (sc_mark s); sh_l := m_line (sc_mark s) - 1; sh_k := sc_tokens_parsed s - 1 |}
     (start_state (si_chars (sc_in s))) s.
Proof. exact SH_boundary. Qed.
Print Assumptions C15_boundary_relation.

(* [sm]: a state in the marker configuration (C15_marker_token_resets) whose queue has been delivered, standing at
   the line break that ends the marker line; [boundary_text sm] the text behind that break, [boundary_shift sm] its
   position (characters, lines, tokens before it) *)
Theorem C15_tail_independence : forall sm : sc strin,
  marker_config sm -> is_break (nth 0 (si_chars (sc_in sm)) 0%N) = true ->
  sc_tokens sm = [] -> sc_token_available sm = false -> sc_stream_end sm = false ->
  (sc_adjacent sm <= m_index (sc_mark sm))%N -> (1 <= sc_tokens_parsed sm)%N ->
  forall (f1 F2 n1 n2 : nat) (acc : list token),
  let d := boundary_shift sm in
  let r1 := scan_all str_ops (S (S f1)) (S n1) (init_sc {| si_chars := boundary_text sm; si_look := 0 |}) [] in
  let r2 := scan_all str_ops (S F2) n2 sm acc in
  ES d (snd r1) (snd r2)
  /\ (proper_end (snd r1) -> proper_end (snd r2) ->
      fst r2 = rev acc ++ map (sht d) (tl (fst r1)) /\ snd r2 = she d (snd r1)).
Proof. exact tail_independence. Qed.
Print Assumptions C15_tail_independence.

Theorem C15_tail_independence_text : forall (X : list N) (k : nat) (pre : list token) (sm : sc strin),
  deliver (str_F X) k (init_sc {| si_chars := X; si_look := 0 |}) = Some (pre, sm) -> (k <= 4 * str_F X + 20)%nat ->
  marker_config sm -> is_break (nth 0 (si_chars (sc_in sm)) 0%N) = true ->
  sc_tokens sm = [] -> sc_token_available sm = false -> sc_stream_end sm = false -> (1 <= sc_tokens_parsed sm)%N ->
  let d := boundary_shift sm in
  let rB := str_scan (boundary_text sm) in
  let rX := str_scan X in
  ES d (snd rB) (snd rX)
  /\ (proper_end (snd rB) -> proper_end (snd rX) ->
      fst rX = pre ++ map (sht d) (tl (fst rB)) /\ snd rX = she d (snd rB)).
Proof. exact tail_independence_text. Qed.
Print Assumptions C15_tail_independence_text.

(* ------------------------------------------------------------------------------------------------ *)
(* text level: scanner tail independence + parser composition, under hypothesis (i)                   *)
(* ------------------------------------------------------------------------------------------------ *)
(* the parser never looks inside a marker: shifting every position of the tokens shifts the event spans, nothing else *)
Theorem C15_parser_position_shift : forall (d : shift) (toks : list token) (keep : bool) (evs : list (event * span)),
  accepts toks keep evs -> accepts (map (sht d) toks) keep (map (eev d) evs).
Proof. exact accepts_shift_pos. Qed.
Print Assumptions C15_parser_position_shift.

(* (i) [boundary_reached A B] (ScanShiftDoc.v): the scanner of A "...\n" B delivers tokens(A) - StreamEnd and a DocumentEnd
   token and then stands, queue delivered, in the marker configuration at the line break behind the marker, B behind it *)
Theorem C15_glued_tokens : forall A B : list N, boundary_reached A B ->
  exists spd d, fst (str_scan (glue_text A B))
                = removelast (fst (str_scan A)) ++ (spd, TDocumentEnd) :: map (sht d) (tl (fst (str_scan B)))
             /\ snd (str_scan (glue_text A B)) = she d (snd (str_scan B)).
Proof. exact glued_tokens. Qed.
Print Assumptions C15_glued_tokens.

(* the tokens of an accepted text: StreamStart first, StreamEnd last and nowhere else (the iterator stops behind
   StreamEnd; the parser accepts no token list without one: C06's flow_balanced) *)
Theorem C15_accepted_tokens_wf : forall (y : list N) (evs : list (event * span)),
  run_str y = (evs, PDone) ->
  exists ss t sps, fst (str_scan y) = ss :: t ++ [(sps, TStreamEnd)] /\ snd ss = TStreamStart
                   /\ Forall (fun x => snd x <> TStreamEnd) t.
Proof. exact accepted_tokens_wf. Qed.
Print Assumptions C15_accepted_tokens_wf.

Theorem C15_text_composition : forall (A B : list N) (evA evB : list (event * span)),
  run_str A = (evA, PDone) -> run_str B = (evB, PDone) -> boundary_reached A B ->
  exists evC, run_str (glue_text A B) = (evC, PDone)
    /\ DocRun.evs_of evC
       = removelast (DocRun.evs_of evA)
         ++ map (shift_ev (count_anchored (DocRun.evs_of evA))) (tl (DocRun.evs_of evB)).
Proof. exact text_composition. Qed.
Print Assumptions C15_text_composition.

(* PREFIX STABILITY of the scanner at a document-end marker line (ScanPrefix.v ... ScanPrefixTop.v, ScanPrefixDoc.v):
   a relational proof "scan of A (end of input)" against "scan of A ++ "...\n" ++ B" over every scanner function.
   [ScanPrefix.TS B t1 t2]: t2 = t1, or t1 / t2 are the same block scalar of line feeds only with the spans
   [indicator, end] / [end, end]. *)
Theorem C15_prefix_tokens : forall A B : list N,
  ends_with_break A -> nonul A -> snd (str_scan A) = SEnded -> closed_flow A ->
  exists k spd (sm : sc strin) l2,
    deliver (str_F (glue_text A B)) k (init_sc {| si_chars := glue_text A B; si_look := 0 |})
      = Some (l2 ++ [(spd, TDocumentEnd)], sm)
    /\ Forall2 (ScanPrefix.TS B) (removelast (fst (str_scan A))) l2
    /\ (k <= 4 * str_F (glue_text A B) + 20)%nat
    /\ marker_config sm /\ is_break (nth 0 (si_chars (sc_in sm)) 0) = true
    /\ sc_tokens sm = [] /\ sc_token_available sm = false /\ sc_stream_end sm = false /\ (1 <= sc_tokens_parsed sm)
    /\ boundary_text sm = B.
Proof. exact prefix_tokens. Qed.
Print Assumptions C15_prefix_tokens.

(* hypothesis (i), discharged *)
Theorem C15_boundary_reached : forall A B : list N,
  ends_with_break A -> nonul A -> snd (str_scan A) = SEnded -> closed_flow A -> no_eof_block A -> boundary_reached A B.
Proof. exact boundary_reached_total. Qed.
Print Assumptions C15_boundary_reached.

Theorem C15_text_composition_total : forall (A B : list N) (evA evB : list (event * span)),
  ends_with_break A -> nonul A -> closed_flow A -> no_eof_block A ->
  run_str A = (evA, PDone) -> run_str B = (evB, PDone) ->
  exists evC, run_str (glue_text A B) = (evC, PDone)
    /\ DocRun.evs_of evC
       = removelast (DocRun.evs_of evA)
         ++ map (shift_ev (count_anchored (DocRun.evs_of evA))) (tl (DocRun.evs_of evB)).
Proof. exact text_composition_total. Qed.
Print Assumptions C15_text_composition_total.

(* ---- the composition without [no_eof_block] and [closed_flow] ---- *)
Theorem C15_events_up_to_spans : forall (toks toks' : list token) (keep : bool) (evs : list (event * span)),
  accepts toks keep evs -> map ScanPrefixFinalParse.etk toks' = map ScanPrefixFinalParse.etk toks ->
  exists evs', accepts toks' keep evs' /\ DocRun.evs_of evs' = DocRun.evs_of evs.
Proof. exact ScanPrefixFinalParse.accepts_up_to_spans. Qed.
Print Assumptions C15_events_up_to_spans.

Theorem C15_flow_level_exact : forall (I : Type) (ops : InputOps I) (F fuel : nat) (i : I) ss t sps,
  scan_all ops F fuel (init_sc i) [] = (ss :: t ++ [(sps, TStreamEnd)], SEnded) ->
  snd ss = TStreamStart -> Forall (fun x => snd x <> TStreamEnd) t ->
  RejectProofs.flow_balanced (ss :: t ++ [(sps, TStreamEnd)]) [] = true ->
  sc_flow_level (ScanPrefixFinalFlow.last_state ops F fuel (init_sc i)) = 0%N.
Proof. exact (@ScanPrefixFinalFlow.balanced_flow_level_zero). Qed.
Print Assumptions C15_flow_level_exact.

Theorem C15_closed_flow_of_accepted : forall (A : list N) (evA : list (event * span)),
  run_str A = (evA, PDone) -> closed_flow A.
Proof. exact closed_flow_of_accepted. Qed.
Print Assumptions C15_closed_flow_of_accepted.

Theorem C15_text_composition_spanfree : forall (A B : list N) (evA evB : list (event * span)),
  ends_with_break A -> nonul A -> closed_flow A ->
  run_str A = (evA, PDone) -> run_str B = (evB, PDone) ->
  exists evC, run_str (glue_text A B) = (evC, PDone)
    /\ DocRun.evs_of evC
       = removelast (DocRun.evs_of evA)
         ++ map (shift_ev (count_anchored (DocRun.evs_of evA))) (tl (DocRun.evs_of evB)).
Proof. exact text_composition_spanfree. Qed.
Print Assumptions C15_text_composition_spanfree.

Theorem C15_text_composition_final : forall (A B : list N) (evA evB : list (event * span)),
  ends_with_break A -> nonul A ->
  run_str A = (evA, PDone) -> run_str B = (evB, PDone) ->
  exists evC, run_str (glue_text A B) = (evC, PDone)
    /\ DocRun.evs_of evC
       = removelast (DocRun.evs_of evA)
         ++ map (shift_ev (count_anchored (DocRun.evs_of evA))) (tl (DocRun.evs_of evB)).
Proof. exact text_composition_final. Qed.
Print Assumptions C15_text_composition_final.

(* ---- any number of texts: A0 "...\n" A1 "...\n" ... An ---- *)
(* [l]: the parts behind the first one, each with its events; [inner_ok A] = [ends_with_break A /\ nonul A] is asked of
   every part that is followed by a marker line (all but the last); the right-hand side is the function of
   C15_composition_many ([part_entry] fills the two components [glue_allE] does not read) *)
Theorem C15_text_composition_many : forall (l : list (list N * list (event * span))) (A0 : list N) (E0 : list (event * span)),
  run_str A0 = (E0, PDone) -> Forall (fun x => run_str (fst x) = (snd x, PDone)) l ->
  Forall inner_ok (removelast (A0 :: map fst l)) ->
  exists EC, run_str (glue_all_text A0 (map fst l)) = (EC, PDone)
    /\ DocRun.evs_of EC = glue_allE (DocRun.evs_of E0) (map part_entry l).
Proof. exact text_composition_many. Qed.
Print Assumptions C15_text_composition_many.

(* [glue_allE] on streams of the shape StreamStart, documents, StreamEnd (the events of every accepted text):
   [glue_docs d [e0; e1; ...]] = documents of e0 raised by d, documents of e1 raised by d + count_anchored e0, ... *)
Theorem C15_glued_events_explicit : forall (l : list (span * list token * list (event * span))) (e0 : list event),
  stream_shape e0 -> Forall (fun x => stream_shape (DocRun.evs_of (snd x))) l ->
  glue_allE e0 l = EStreamStart :: glue_docs 0 (e0 :: map (fun x => DocRun.evs_of (snd x)) l) ++ [EStreamEnd]
  /\ stream_shape (glue_allE e0 l).
Proof. exact glue_allE_explicit. Qed.
Print Assumptions C15_glued_events_explicit.

Theorem C15_text_composition_many_explicit : forall (l : list (list N * list (event * span))) (A0 : list N) (E0 : list (event * span)),
  run_str A0 = (E0, PDone) -> Forall (fun x => run_str (fst x) = (snd x, PDone)) l ->
  Forall inner_ok (removelast (A0 :: map fst l)) ->
  exists EC, run_str (glue_all_text A0 (map fst l)) = (EC, PDone)
    /\ DocRun.evs_of EC
       = EStreamStart :: glue_docs 0 (DocRun.evs_of E0 :: map (fun x => DocRun.evs_of (snd x)) l) ++ [EStreamEnd].
Proof. exact text_composition_many_explicit. Qed.
Print Assumptions C15_text_composition_many_explicit.

(* ------------------------------------------------------------------------------------------------ *)
(* examples: the hypotheses are satisfiable, the statements are not trivially true                    *)
(* ------------------------------------------------------------------------------------------------ *)
Local Open Scope N_scope.
Definition sp0 : span := span_empty {| m_index := 0; m_line := 1; m_col := 0 |}.
(* A = "&a x" (one anchored scalar), B = "&b y": both accepted on their own by the driver *)
Definition exA : list token := [(sp0, TStreamStart); (sp0, TAnchor [97]); (sp0, TScalar Plain [120]); (sp0, TStreamEnd)].
Definition exB : list token := [(sp0, TStreamStart); (sp0, TAnchor [98]); (sp0, TScalar Plain [121]); (sp0, TStreamEnd)].
Definition exC : list token :=
  [(sp0, TStreamStart); (sp0, TAnchor [97]); (sp0, TScalar Plain [120]); (sp0, TDocumentEnd);
   (sp0, TAnchor [98]); (sp0, TScalar Plain [121]); (sp0, TStreamEnd)].
Example composition_hypotheses_hold :
  snd (parse_all 20 (init_parser exA false) SEnded []) = PDone
  /\ snd (parse_all 20 (init_parser exB false) SEnded []) = PDone.
Proof. split; vm_compute; reflexivity. Qed.
(* ... and in the composition the anchor of B really is renumbered (id 2), the alias table does not leak *)
Example composition_renumbers :
  C02run.evs_of (fst (parse_all 20 (init_parser exC false) SEnded []))
  = [EStreamStart; EDocumentStart false; EScalar [120] Plain 1 None; EDocumentEnd;
     EDocumentStart false; EScalar [121] Plain 2 None; EDocumentEnd; EStreamEnd].
Proof. vm_compute. reflexivity. Qed.
(* with keep_tags the tag table is NOT reset: the hypothesis "keep = false" of the composition theorem matters *)
Example keep_tags_is_not_independent :
  exists p ev p', p_keep_tags p = true /\ document_end p = Parser.Ok (ev, p') /\ p_tags p' <> [].
Proof.
  exists {| p_toks := []; p_token := Some (sp0, TStreamEnd); p_states := []; p_state := SDocumentEnd;
            p_anchors := []; p_anchor_id := 1; p_tags := [([33;101;33], [120])]; p_keep_tags := true |}.
  eexists _, _. split; [reflexivity|]. split; [vm_compute; reflexivity|]. discriminate.
Qed.

(* the regression input of the repaired class (/repo ad74b3e): "{x}\n...\n[ : ]\n" is accepted by the model,
   and the scanner states around the marker are the ones the theorems talk about *)
Definition ex_text : list N := [123;120;125;10;46;46;46;10;91;32;58;32;93;10].
Example fixed_class_accepted : snd (run_str ex_text) = PDone.
Proof. vm_compute. reflexivity. Qed.
Notation ex_state k := (fetches str_ops 40 k (init_sc {| si_chars := ex_text; si_look := 0 |})).
Definition ex_view (k : nat) :=
  match ex_state k with
  | Some s => Some (map snd (sc_tokens s), sc_flow_level s, sc_ifms s, sc_indent s, sc_ska s, map sk_possible (sc_sks s))
  | None => None
  end.
(* after "{x}\n..." : marker token queued, flow level 0, no flow state left, marker configuration *)
Example marker_state :
  ex_view 5 = Some ([TStreamStart; TFlowMappingStart; TScalar Plain [120]; TFlowMappingEnd; TDocumentEnd],
                    0, [], (-1)%Z, false, [false]).
Proof. vm_compute. reflexivity. Qed.
(* inside "[ : " the per-collection state is live (so the invariant is not about an always-empty stack) *)
Example flow_state_live :
  ex_view 7 = Some ([TStreamStart; TFlowMappingStart; TScalar Plain [120]; TFlowMappingEnd; TDocumentEnd;
                     TFlowSequenceStart; TFlowMappingStart; TValue], 1, [ImInside], (-1)%Z, false, [false; true]).
Proof. vm_compute. reflexivity. Qed.
Example marker_state_satisfies_theorem :
  exists s, ex_state 5 = Some s /\ SkInv s /\ sc_flow_level s = 0 /\ last_tok (fun tk => is_marker tk = true) s.
Proof.
  assert (E : exists s, ex_state 5 = Some s /\ sc_flow_level s = 0
                        /\ exists l sp, sc_tokens s = l ++ [(sp, TDocumentEnd)]).
  { vm_compute. eexists. split; [reflexivity|]. split; [reflexivity|]. eexists [_; _; _; _], _. reflexivity. }
  destruct E as (s & E & EF & l & sp & ET). exists s. split; [exact E|].
  split; [eapply fetches_SkInv; [apply SkInv_init|exact E]|]. split; [exact EF|].
  exists l, sp, TDocumentEnd. auto.
Qed.

(* ------------------------------------------------------------------------------------------------ *)
(* tail independence on the regression input "{x}\n...\n[ : ]\n": every hypothesis of                   *)
(* C15_tail_independence_text is discharged by the theorems above                                     *)
(* ------------------------------------------------------------------------------------------------ *)
Definition ex_B : list N := [91;32;58;32;93;10].                       (* "[ : ]\n" *)
Definition ex_A : list N := [123;120;125;10].                          (* "{x}\n" *)
Definition ex_spd : span := {| sp_start := {| m_index := 4; m_line := 2; m_col := 0 |};
                               sp_end := {| m_index := 7; m_line := 2; m_col := 3 |} |}.
Definition ex_init : sc strin := init_sc {| si_chars := ex_text; si_look := 0 |}.
(* The Scanner iterator, having delivered the five tokens of "{x}\n...", stands in state [sm]: it is the state [s5]
   reached by the fetch step that queued the marker, with the queue delivered.  (Closed computations.) *)
Example ex_facts :
  exists s4 s5 pre sm,
    fetches str_ops (str_F ex_text) 4 ex_init = Some s4
    /\ fetch_next_token str_ops (str_F ex_text) s4 = SBase.Ok (tt, s5)
    /\ deliver (str_F ex_text) 5 ex_init = Some (pre, sm)
    /\ sc_flow_level s5 = 0 /\ (exists l sp, sc_tokens s5 = l ++ [(sp, TDocumentEnd)])
    /\ sm = set_tp 5 (set_ta false (set_tokens [] s5))
    /\ map snd pre = [TStreamStart; TFlowMappingStart; TScalar Plain [120]; TFlowMappingEnd; TDocumentEnd]
    /\ pre = removelast (fst (str_scan ex_A)) ++ [(ex_spd, TDocumentEnd)]
    /\ is_break (nth 0 (si_chars (sc_in sm)) 0) = true /\ sc_tokens sm = [] /\ sc_token_available sm = false
    /\ sc_stream_end sm = false /\ (1 <= sc_tokens_parsed sm)
    /\ boundary_text sm = ex_B /\ boundary_shift sm = {| sh_i := 8; sh_l := 2; sh_k := 4 |}.
Proof.
  eexists _, _, _, _.
  split; [vm_compute; reflexivity|]. split; [vm_compute; reflexivity|]. split; [vm_compute; reflexivity|].
  split; [vm_compute; reflexivity|]. split; [eexists [_; _; _; _], _; vm_compute; reflexivity|].
  repeat (split; [vm_compute; reflexivity|]). split; [vm_compute; discriminate|]. split; vm_compute; reflexivity.
Qed.
(* C15_marker_token_resets gives the marker configuration of [s5], hence of [sm]: all hypotheses of
   C15_tail_independence_text hold *)
Example boundary_hypotheses :
  exists pre sm,
    deliver (str_F ex_text) 5 ex_init = Some (pre, sm)
    /\ map snd pre = [TStreamStart; TFlowMappingStart; TScalar Plain [120]; TFlowMappingEnd; TDocumentEnd]
    /\ pre = removelast (fst (str_scan ex_A)) ++ [(ex_spd, TDocumentEnd)]
    /\ marker_config sm
    /\ is_break (nth 0 (si_chars (sc_in sm)) 0) = true /\ sc_tokens sm = [] /\ sc_token_available sm = false
    /\ sc_stream_end sm = false /\ (1 <= sc_tokens_parsed sm)
    /\ boundary_text sm = ex_B /\ boundary_shift sm = {| sh_i := 8; sh_l := 2; sh_k := 4 |}.
Proof.
  destruct ex_facts as (s4 & s5 & pre & sm & E4 & E5 & ED & EF & (l & sp & ET) & ES & EP & EPre & R).
  exists pre, sm. split; [exact ED|]. split; [exact EP|]. split; [exact EPre|]. split; [|exact R].
  assert (HC : marker_config s5 /\ sc_ska s5 = false).
  { apply (C15_marker_token_resets _ str_ops (str_F ex_text) s4 tt s5); [|exact E5|exact EF|].
    - eapply fetches_SkInv; [apply SkInv_init|exact E4].
    - exists l, sp, TDocumentEnd. auto. }
  rewrite ES. exact (proj1 HC).
Qed.
(* hence, by C15_tail_independence_text: the tokens of the whole text are the five tokens delivered before the
   boundary followed by the tokens of "[ : ]\n" scanned alone, StreamStart removed, shifted by 8 characters / 2 lines *)
Example tail_independence_applied :
  exists pre, map snd pre = [TStreamStart; TFlowMappingStart; TScalar Plain [120]; TFlowMappingEnd; TDocumentEnd]
    /\ fst (str_scan ex_text) = pre ++ map (sht {| sh_i := 8; sh_l := 2; sh_k := 4 |}) (tl (fst (str_scan ex_B)))
    /\ snd (str_scan ex_text) = she {| sh_i := 8; sh_l := 2; sh_k := 4 |} (snd (str_scan ex_B)).
Proof.
  destruct boundary_hypotheses as (pre & sm & ED & EP & _ & HC & HB & ET & EA & EE & ETP & EB & ESh).
  exists pre. split; [exact EP|].
  assert (HK : (5 <= 4 * str_F ex_text + 20)%nat) by (apply PeanoNat.Nat.leb_le; vm_compute; reflexivity).
  pose proof (C15_tail_independence_text ex_text 5 pre sm ED HK HC HB ET EA EE ETP) as H.
  cbn zeta in H. rewrite EB, ESh in H. apply H; vm_compute; exact I.
Qed.
(* ... and the statement is not vacuous: the shifted tokens really are the tail of the token list *)
Example tail_independence_tokens :
  map (fun t => (m_index (sp_start (fst t)), m_line (sp_start (fst t)), snd t)) (skipn 5 (fst (str_scan ex_text)))
  = [(8, 3, TFlowSequenceStart); (10, 3, TFlowMappingStart); (10, 3, TValue); (12, 3, TFlowMappingEnd);
     (12, 3, TFlowSequenceEnd); (14, 4, TStreamEnd)]
  /\ map (fun t => (m_index (sp_start (fst t)), m_line (sp_start (fst t)), snd t)) (tl (fst (str_scan ex_B)))
  = [(0, 1, TFlowSequenceStart); (2, 1, TFlowMappingStart); (2, 1, TValue); (4, 1, TFlowMappingEnd);
     (4, 1, TFlowSequenceEnd); (6, 2, TStreamEnd)].
Proof. split; vm_compute; reflexivity. Qed.

(* ------------------------------------------------------------------------------------------------ *)
(* the text-level composition on the same input: hypothesis (i) holds, the events are the events of                    *)
(* "{x}\n" and of "[ : ]\n" glued                                                                      *)
(* ------------------------------------------------------------------------------------------------ *)
Example ex_text_is_glued : glue_text ex_A ex_B = ex_text.
Proof. reflexivity. Qed.
Example ex_boundary_reached : boundary_reached ex_A ex_B.
Proof.
  destruct boundary_hypotheses as (pre & sm & ED & EP & EPre & HC & HB & ET & EA & EE & ETP & EB & _).
  exists 5%nat, ex_spd, sm. rewrite ex_text_is_glued. rewrite <- EPre.
  split; [exact ED|]. split; [apply PeanoNat.Nat.leb_le; vm_compute; reflexivity|].
  repeat (split; [assumption|]). exact EB.
Qed.
Example text_composition_applied :
  exists evA evB evC, run_str ex_A = (evA, PDone) /\ run_str ex_B = (evB, PDone) /\ run_str ex_text = (evC, PDone)
    /\ C02run.evs_of evC = removelast (C02run.evs_of evA) ++ map (shift_ev (count_anchored (C02run.evs_of evA))) (tl (C02run.evs_of evB)).
Proof.
  assert (HA : exists evA, run_str ex_A = (evA, PDone)) by (eexists; vm_compute; reflexivity).
  assert (HB : exists evB, run_str ex_B = (evB, PDone)) by (eexists; vm_compute; reflexivity).
  destruct HA as [evA HA], HB as [evB HB].
  destruct (C15_text_composition ex_A ex_B evA evB HA HB ex_boundary_reached) as (evC & HC & EV).
  rewrite ex_text_is_glued in HC. exists evA, evB, evC. auto.
Qed.

(* ------------------------------------------------------------------------------------------------ *)
(* prefix stability: the side conditions hold for "{x}\n"; the composition without hypothesis (i);    *)
(* the two excluded classes are not empty                                                            *)
(* ------------------------------------------------------------------------------------------------ *)
Example ex_A_side_conditions : ends_with_break ex_A /\ nonul ex_A /\ closed_flow ex_A /\ no_eof_block ex_A.
Proof.
  split; [right; reflexivity|]. split; [repeat constructor; discriminate|]. split; vm_compute; reflexivity.
Qed.
Example text_composition_total_applied :
  exists evA evB evC, run_str ex_A = (evA, PDone) /\ run_str ex_B = (evB, PDone) /\ run_str ex_text = (evC, PDone)
    /\ C02run.evs_of evC = removelast (C02run.evs_of evA) ++ map (shift_ev (count_anchored (C02run.evs_of evA))) (tl (C02run.evs_of evB)).
Proof.
  assert (HA : exists evA, run_str ex_A = (evA, PDone)) by (eexists; vm_compute; reflexivity).
  assert (HB : exists evB, run_str ex_B = (evB, PDone)) by (eexists; vm_compute; reflexivity).
  destruct HA as [evA HA], HB as [evB HB].
  destruct ex_A_side_conditions as (C1 & C2 & C3 & C4).
  destruct (C15_text_composition_total ex_A ex_B evA evB C1 C2 C3 C4 HA HB) as (evC & HC & EV).
  rewrite ex_text_is_glued in HC. exists evA, evB, evC. auto.
Qed.
(* the finding behind [no_eof_block]: the empty block scalar "|\n" has the span 0:1:0-2:2:0 at the end of input and
   2:2:0-2:2:0 before a "..." line (same on the implementation: hx tokens on "124 10" / "124 10 46 46 46 10") *)
Example eof_block_span_differs :
  nth 1 (fst (str_scan [124;10])) (span_empty mk0, TStreamEnd)
    = ({| sp_start := {| m_index := 0; m_line := 1; m_col := 0 |}; sp_end := {| m_index := 2; m_line := 2; m_col := 0 |} |},
       TScalar Literal [])
  /\ nth 1 (fst (str_scan (glue_text [124;10] []))) (span_empty mk0, TStreamEnd)
    = ({| sp_start := {| m_index := 2; m_line := 2; m_col := 0 |}; sp_end := {| m_index := 2; m_line := 2; m_col := 0 |} |},
       TScalar Literal [])
  /\ forallb ok_tok (fst (str_scan [124;10])) = false.
Proof. repeat split; vm_compute; reflexivity. Qed.
(* [closed_flow] is a real condition of the SCANNER-level statement: "[a\n" scans to the end, but inside a flow
   collection the "..." line is not a document boundary (such a text is rejected by the parser) *)
Example open_flow_not_closed :
  snd (str_scan [91;97;10]) = SEnded
  /\ sc_flow_level (ScanPrefixTop.scan_last (str_F [91;97;10]) (4 * str_F [91;97;10] + 20)
                     (init_sc {| si_chars := [91;97;10]; si_look := 0 |})) = 1.
Proof. split; vm_compute; reflexivity. Qed.
(* C15_text_composition_final on a text that [no_eof_block] excludes: A = "|\n" (an empty block scalar running
   into the end of input), B = "[ : ]\n" *)
Example text_composition_final_applied_eof_block :
  exists evA evB evC, run_str [124;10] = (evA, PDone) /\ run_str ex_B = (evB, PDone)
    /\ run_str (glue_text [124;10] ex_B) = (evC, PDone)
    /\ DocRun.evs_of evC = removelast (DocRun.evs_of evA) ++ map (shift_ev (count_anchored (DocRun.evs_of evA))) (tl (DocRun.evs_of evB)).
Proof.
  assert (HA : exists evA, run_str [124;10] = (evA, PDone)) by (eexists; vm_compute; reflexivity).
  assert (HB : exists evB, run_str ex_B = (evB, PDone)) by (eexists; vm_compute; reflexivity).
  destruct HA as [evA HA], HB as [evB HB].
  assert (C1 : ends_with_break [124;10]) by (right; reflexivity).
  assert (C2 : nonul [124;10]) by (repeat constructor; discriminate).
  destruct (C15_text_composition_final [124;10] ex_B evA evB C1 C2 HA HB) as (evC & HC & EV).
  exists evA, evB, evC. auto.
Qed.

(* ------------------------------------------------------------------------------------------------ *)
(* any number of texts: three parts, "&a x\n", "- &b y\n- *b\n" (an anchor and an alias to it), "&c z" (the last part    *)
(* need not end with a line break).  The hypotheses hold; the anchor of the second part gets id 2 and its alias    *)
(* follows, the anchor of the third part gets id 3 (1 + 1 anchored nodes before it)                                  *)
(* ------------------------------------------------------------------------------------------------ *)
Definition ex_P0 : list N := [38;97;32;120;10].
Definition ex_P1 : list N := [45;32;38;98;32;121;10;45;32;42;98;10].
Definition ex_P2 : list N := [38;99;32;122].
Example ex_many_text :
  glue_all_text ex_P0 [ex_P1; ex_P2]
  = [38;97;32;120;10; 46;46;46;10; 45;32;38;98;32;121;10;45;32;42;98;10; 46;46;46;10; 38;99;32;122].
Proof. reflexivity. Qed.
Example ex_many_parts_alone :
  DocRun.evs_of (fst (run_str ex_P1))
  = [EStreamStart; EDocumentStart false; ESequenceStart 0 None; EScalar [121] Plain 1 None; EAlias 1; ESequenceEnd;
     EDocumentEnd; EStreamEnd]
  /\ DocRun.evs_of (fst (run_str ex_P2))
  = [EStreamStart; EDocumentStart false; EScalar [122] Plain 1 None; EDocumentEnd; EStreamEnd].
Proof. split; vm_compute; reflexivity. Qed.
Example text_composition_many_applied :
  exists EC, run_str (glue_all_text ex_P0 [ex_P1; ex_P2]) = (EC, PDone)
    /\ DocRun.evs_of EC
       = [EStreamStart; EDocumentStart false; EScalar [120] Plain 1 None; EDocumentEnd;
          EDocumentStart false; ESequenceStart 0 None; EScalar [121] Plain 2 None; EAlias 2; ESequenceEnd; EDocumentEnd;
          EDocumentStart false; EScalar [122] Plain 3 None; EDocumentEnd; EStreamEnd].
Proof.
  pose (E0 := fst (run_str ex_P0)). pose (E1 := fst (run_str ex_P1)). pose (E2 := fst (run_str ex_P2)).
  assert (H0 : run_str ex_P0 = (E0, PDone)) by (vm_compute; reflexivity).
  assert (H1 : run_str ex_P1 = (E1, PDone)) by (vm_compute; reflexivity).
  assert (H2 : run_str ex_P2 = (E2, PDone)) by (vm_compute; reflexivity).
  destruct (C15_text_composition_many [(ex_P1, E1); (ex_P2, E2)] ex_P0 E0 H0) as (EC & HC & EV).
  - constructor; [exact H1|constructor; [exact H2|constructor]].
  - cbn [map fst removelast]. unfold ex_P0, ex_P1.
    constructor; [split; [right; reflexivity|repeat (constructor; [discriminate|]); constructor]|].
    constructor; [split; [right; reflexivity|repeat (constructor; [discriminate|]); constructor]|constructor].
  - exists EC. split; [exact HC|]. rewrite EV. vm_compute. reflexivity.
Qed.
(* ... and the explicit form on the same parts *)
Example text_composition_many_explicit_applied :
  exists EC, run_str (glue_all_text ex_P0 [ex_P1; ex_P2]) = (EC, PDone)
    /\ DocRun.evs_of EC
       = EStreamStart
         :: (docs_of (DocRun.evs_of (fst (run_str ex_P0)))
             ++ map (shift_ev 1) (docs_of (DocRun.evs_of (fst (run_str ex_P1))))
             ++ map (shift_ev 2) (docs_of (DocRun.evs_of (fst (run_str ex_P2)))))
         ++ [EStreamEnd].
Proof.
  pose (E0 := fst (run_str ex_P0)). pose (E1 := fst (run_str ex_P1)). pose (E2 := fst (run_str ex_P2)).
  assert (H0 : run_str ex_P0 = (E0, PDone)) by (vm_compute; reflexivity).
  assert (H1 : run_str ex_P1 = (E1, PDone)) by (vm_compute; reflexivity).
  assert (H2 : run_str ex_P2 = (E2, PDone)) by (vm_compute; reflexivity).
  destruct (C15_text_composition_many_explicit [(ex_P1, E1); (ex_P2, E2)] ex_P0 E0 H0) as (EC & HC & EV).
  - constructor; [exact H1|constructor; [exact H2|constructor]].
  - cbn [map fst removelast]. unfold ex_P0, ex_P1.
    constructor; [split; [right; reflexivity|repeat (constructor; [discriminate|]); constructor]|].
    constructor; [split; [right; reflexivity|repeat (constructor; [discriminate|]); constructor]|constructor].
  - exists EC. split; [exact HC|]. rewrite EV. vm_compute. reflexivity.
Qed.
(* the condition on the inner parts is a real one: "x" "...\n" "y" (no line break before the marker line) is ONE document *)
Example inner_break_needed :
  DocRun.evs_of (fst (run_str (glue_all_text [120] [[121]])))
  = [EStreamStart; EDocumentStart false; EScalar [120;46;46;46;32;121] Plain 0 None; EDocumentEnd; EStreamEnd].
Proof. vm_compute. reflexivity. Qed.
