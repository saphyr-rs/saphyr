(* C14 — Line-break style does not change the parse.  (theorems: Proofs/BreakProofs.v for the positions,
   ScanBrkAll.v for the scanner and the pipeline over the string input, BufferedTransfer.v for the buffered input) *)
From Coq Require Import List NArith Bool.
Import ListNotations.
Require Import Parser SBase SBuf SFetch Pipe Positions BreakProofs ScanBrk ScanBrkParse ScanBrkTop ScanBrkAll BufferedTransfer.
Open Scope N_scope.

(* Line and column of the image of a position are unchanged when every LF is replaced by CR LF: the recount sees the
   same number of breaks and the same column.  (For the replacement by a lone CR there is no theorem about positions
   alone; the spans of C14_cr below say it of every position the parser reports.) *)
Theorem C14_positions_crlf : forall s n,
  Forall (fun c => c <> 13) s -> pos_go (crlf s) (length (crlf (firstn n s))) 1 0 = pos_go s (Nat.min n (length s)) 1 0.
Proof. exact pos_crlf. Qed.
Print Assumptions C14_positions_crlf.

(* SCANNER + PARSER LEVEL.  For every CR-free text x and both substitutions, the model pipeline delivers the same
   events - EVR: equal event (kind, scalar text with breaks as line feeds, style, anchor id, tag) and spans that agree
   in LINE and COLUMN (only the character index differs) - and ends the same way - PER: both PDone, or the same
   scan / parse error site at markers with the same line and column -, unless one of the two runs ends in a panic
   (running out of fuel is excluded by C01_pipeline_terminates_linear, already discharged inside the lemma).
   MR m1 m2 := m_line m1 = m_line m2 /\ m_col m1 = m_col m2. *)
Theorem C14_pipeline_crlf : forall x : list chr, nocr x ->
  is_panic (snd (run_str x)) \/ is_panic (snd (run_str (crlf x))) \/
  (Forall2 EVR (fst (run_str x)) (fst (run_str (crlf x))) /\ PER (snd (run_str x)) (snd (run_str (crlf x)))).
Proof. exact pipeline_crlf. Qed.
Print Assumptions C14_pipeline_crlf.

Theorem C14_pipeline_cr : forall x : list chr, nocr x ->
  is_panic (snd (run_str x)) \/ is_panic (snd (run_str (cr x))) \/
  (Forall2 EVR (fst (run_str x)) (fst (run_str (cr x))) /\ PER (snd (run_str x)) (snd (run_str (cr x)))).
Proof. exact pipeline_cr. Qed.
Print Assumptions C14_pipeline_cr.

(* The scanner alone, for ALL fuels on both sides: related ends, and related token lists when both ends are proper. *)
Theorem C14_scanner_break_style : forall md, brk_target md.
Proof. exact scanner_brk. Qed.
Print Assumptions C14_scanner_break_style.

(* non-vacuity: a multi-line document with a folded quoted scalar, a block scalar and a comment *)
Definition c14_doc : list N := [97; 58; 32; 34; 120; 10; 32; 121; 34; 10; 98; 58; 32; 124; 10; 32; 32; 122; 10; 35; 99; 10].
Example C14_example_crlf :
  Forall (fun c => c <> 13) c14_doc /\ snd (run_str c14_doc) = PDone /\ snd (run_str (crlf c14_doc)) = PDone
  /\ map fst (fst (run_str c14_doc)) = map fst (fst (run_str (crlf c14_doc))).
Proof. split; [repeat constructor; discriminate|]. vm_compute. repeat split; reflexivity. Qed.

(* ... and with the panic freedom of the string pipeline (C01_pipeline_never_panics_str) NO exception is left:
   for every CR-free text, both substitutions give the same events with the same line and column in every span
   and the same end. *)
Theorem C14_crlf : forall x : list chr, nocr x ->
  Forall2 EVR (fst (run_str x)) (fst (run_str (crlf x))) /\ PER (snd (run_str x)) (snd (run_str (crlf x))).
Proof. exact pipeline_crlf_total. Qed.
Print Assumptions C14_crlf.

Theorem C14_cr : forall x : list chr, nocr x ->
  Forall2 EVR (fst (run_str x)) (fst (run_str (cr x))) /\ PER (snd (run_str x)) (snd (run_str (cr x))).
Proof. exact pipeline_cr_total. Qed.
Print Assumptions C14_cr.

(* The same over BUFFERED input back-ends of any capacities >= 8 (the two runs may use different ones): unconditionally,
   since every buffered pipeline returns exactly what the string pipeline returns (C10_pipeline_backends_equal; bounded
   work is proved for the buffered instance too: C01_pipeline_terminates_linear_buffered). *)
Theorem C14_crlf_buffered : forall (x : list chr) cap1 cap2,
  (8 <= cap1)%nat -> (8 <= cap2)%nat -> nocr x ->
  Forall2 EVR (fst (run_buf cap1 x)) (fst (run_buf cap2 (crlf x)))
  /\ PER (snd (run_buf cap1 x)) (snd (run_buf cap2 (crlf x))).
Proof. exact pipeline_crlf_buffered_total. Qed.
Print Assumptions C14_crlf_buffered.

Theorem C14_cr_buffered : forall (x : list chr) cap1 cap2,
  (8 <= cap1)%nat -> (8 <= cap2)%nat -> nocr x ->
  Forall2 EVR (fst (run_buf cap1 x)) (fst (run_buf cap2 (cr x)))
  /\ PER (snd (run_buf cap1 x)) (snd (run_buf cap2 (cr x))).
Proof. exact pipeline_cr_buffered_total. Qed.
Print Assumptions C14_cr_buffered.

Example C14_buffered_example :
  let x := [97; 58; 10; 32; 32; 45; 32; 98; 10; 32; 32; 45; 32; 34; 99; 10; 32; 32; 32; 32; 100; 34; 10] in
  snd (run_buf 8 x) = PDone /\ snd (run_buf 16 (crlf x)) = PDone.
Proof. vm_compute. split; reflexivity. Qed.
