(* C01 — Parsing always terminates: no panic, abort or hang on any input.
   Theorems: (1) the parser layer never panics, for every token stream; (2) the WHOLE scanner + parser
   pipeline over a buffered input of ANY capacity >= 8 never panics, for every input string: no lookahead-contract
   violation (peek/skip beyond the buffer, lookahead beyond the capacity, push into a full buffer, the
   assert!(buflen >= k) of the Input default methods) and none of the skeleton panics (empty simple-key / indent
   stacks, token insertion out of range, token-number underflow, debug_assert!(is_break), u32 overflow of the version
   number).  (3) BOUNDED WORK: over the string input, for every input, no loop of the scanner exhausts the fuel
   F = 2 * |input| + 10 it is given, the scanner delivers at most 4F + 20 tokens and the parser ends within
   4 * (4F + 20) + 40 steps - the pipeline run_str never ends in OutOfFuel; every fetch_next_token step is the
   stream-start step, or consumes at least one character, or is the final fetch_stream_end.  (4) BOUNDED WORK OVER THE
   BUFFERED INPUT of any capacity >= 8 (BufferedInput, capacity 16, is the back-end behind Parser::new_from_iter and
   Yaml::load_from_str): with the SAME fuel formulas run_buf never ends in OutOfFuel either, and always ends properly
   (fuel transfer from the string instance through the strict reading of the relational calculus:
   Proofs/ScanPair*.v, ScanFuelBuf*.v).
   The string instance here is the character-level one ([str_ops]); the byte-level overrides of StrInput are the
   subject of Properties/C10.v (C10_bytes_*: each returns what the character-level method returns). *)
From Coq Require Import List NArith Bool.
Import ListNotations.
Require Import Parser SBase SFetch Pipe SBuf Grammar C02base C02tail C02run ScanWP ScanSafeTop ScanFuel ScanFuelFetch ScanFuelTop ScanFuelAll ScanSafeStrTop ScanFuelBufAll.

(* The pull parser never panics (pop_state on an empty stack, fetch_token without peek, unreachable! arms,
   State::End in the state machine), whatever the token stream and however the scanner ended: a panic verdict
   of a whole run can only be the scanner's own. *)
Theorem C01_parser_never_panics : forall toks keep se fuel n,
  snd (parse_all fuel (init_parser toks keep) se []) = PPanic n -> se = SPanic n.
Proof.
  intros toks keep se fuel n H.
  pose proof (parser_run_wellformed toks keep se fuel) as [_ E]. cbn zeta in E. rewrite H in E. exact E.
Qed.
Print Assumptions C01_parser_never_panics.

(* one step: no panic from any state satisfying the invariant *)
Theorem C01_step_never_panics : forall p g n, Inv p g -> p_state p <> SEnd -> state_machine p <> Parser.Panic n.
Proof.
  intros p g n HI HE HP. pose proof (state_machine_post p g HI HE) as H. rewrite HP in H. exact H.
Qed.
Print Assumptions C01_step_never_panics.

(* The scanner model on a buffered input of any capacity >= 8 never panics, whatever the input and the fuel. *)
Theorem C01_scanner_never_panics_buffered : forall cap, (8 <= cap)%nat -> forall F fuel input n,
  snd (scan_all (buf_ops cap) F fuel (init_sc {| b_buf := []; b_rest := input |}) []) <> SPanic n.
Proof. exact scanner_never_panics_buffered. Qed.
Print Assumptions C01_scanner_never_panics_buffered.

(* ... and neither does the whole pipeline (scanner, then parser on its tokens). *)
Theorem C01_pipeline_never_panics_buffered : forall cap, (8 <= cap)%nat -> forall input n,
  snd (run_buf cap input) <> PPanic n.
Proof. exact pipeline_never_panics_buffered. Qed.
Print Assumptions C01_pipeline_never_panics_buffered.

(* ---- bounded work (string input) ---- *)
(* One dispatcher step from any state whose remaining input fits the fuel: it does not run out of fuel, the remaining
   input does not grow, and it is (a) the stream-start step, or (b) it consumed at least one character and the
   potential phi (tokens handed out + tokens queued + block ends still owed) grew by at most 5, or (c) it was
   fetch_stream_end, after which no simple key is possible and the queue ends with StreamEnd. *)
Theorem C01_fetch_next_token_progress : forall (F : nat) (s : fst_), fuel_ok F s ->
  fwp (fetch_next_token str_ops F) (fnt_post s) s.
Proof. exact fetch_next_token_progress. Qed.
Print Assumptions C01_fetch_next_token_progress.

(* The scanner, given the fuels run_str gives it (linear in the input length), never ends in SFuel. *)
Theorem C01_scanner_terminates_linear : forall orig : list chr,
  let F := (2 * length orig + 10)%nat in
  snd (scan_all str_ops F (4 * F + 20) (init_sc {| si_chars := orig; si_look := 0 |}) []) <> SFuel.
Proof. exact scanner_never_out_of_fuel. Qed.
Print Assumptions C01_scanner_terminates_linear.

(* The parser on ANY token list ends within 4 * tokens + 2 steps. *)
Theorem C01_parser_terminates_linear : forall toks se keep fuel, (4 * length toks + 2 <= fuel)%nat -> se <> SFuel ->
  snd (parse_all fuel {| p_toks := toks; p_token := None; p_states := []; p_state := SStreamStart;
                         p_anchors := []; p_anchor_id := 1%N; p_tags := []; p_keep_tags := keep |} se []) <> PFuel.
Proof. exact parse_tokens_fuel_suffices. Qed.
Print Assumptions C01_parser_terminates_linear.

(* The whole pipeline over the string input never runs out of its linear fuel: every run ends in PDone, a scan error,
   a parse error (or PPanic, excluded for the buffered instance above and for the string instance by
   C01_pipeline_never_panics_str below). *)
Theorem C01_pipeline_terminates_linear : forall orig : list N, snd (run_str orig) <> PFuel.
Proof. exact pipeline_never_out_of_fuel. Qed.
Print Assumptions C01_pipeline_terminates_linear.

(* ---- the string input never panics either (Proofs/ScanSafeStrTop.v) ---- *)
Theorem C01_scanner_never_panics_str : forall F fuel input n,
  snd (scan_all str_ops F fuel (init_sc {| si_chars := input; si_look := 0 |}) []) <> SPanic n.
Proof. exact scanner_never_panics_str. Qed.
Print Assumptions C01_scanner_never_panics_str.

Theorem C01_pipeline_never_panics_str : forall input n, snd (run_str input) <> PPanic n.
Proof. exact pipeline_never_panics_str. Qed.
Print Assumptions C01_pipeline_never_panics_str.

(* TOTAL CORRECTNESS of the model pipeline over the string input: for EVERY input the run, given fuel linear in the
   input length, ends in a complete event stream (PDone) or in a first scan / parse error - never in a panic, never
   by exhausting its fuel. *)
Theorem C01_pipeline_ends_properly : forall orig : list N, proper_pend (snd (run_str orig)).
Proof. exact pipeline_ends_properly. Qed.
Print Assumptions C01_pipeline_ends_properly.

(* ---- bounded work over the BUFFERED input (any capacity >= 8) ---- *)
(* The buffered scanner, given the fuels run_buf gives it (linear in the input length), never ends in SFuel. *)
Theorem C01_scanner_terminates_linear_buffered : forall cap (orig : list chr), (8 <= cap)%nat ->
  let F := (2 * length orig + 10)%nat in
  snd (scan_all (buf_ops cap) F (4 * F + 20) (init_sc {| b_buf := []; b_rest := orig |}) []) <> SFuel.
Proof. exact scanner_never_out_of_fuel_buffered. Qed.
Print Assumptions C01_scanner_terminates_linear_buffered.

(* The whole pipeline over the buffered input never runs out of its linear fuel. *)
Theorem C01_pipeline_terminates_linear_buffered : forall cap (x : list N), (8 <= cap)%nat -> snd (run_buf cap x) <> PFuel.
Proof. exact pipeline_terminates_linear_buffered. Qed.
Print Assumptions C01_pipeline_terminates_linear_buffered.

(* TOTAL CORRECTNESS of the model pipeline over the buffered input of any capacity >= 8: for EVERY input the run ends in
   a complete event stream (PDone) or in a first scan / parse error - never in a panic, never by exhausting its fuel. *)
Theorem C01_pipeline_ends_properly_buffered : forall cap (x : list N), (8 <= cap)%nat -> proper_pend (snd (run_buf cap x)).
Proof. exact pipeline_ends_properly_buffered. Qed.
Print Assumptions C01_pipeline_ends_properly_buffered.
